(* C05 -- a routed Message reaches exactly the sessions its patterns select, once each.
   Only theorem statements proved by `exact`, their Print Assumptions, and non-vacuity examples. *)
From Coq Require Import List NArith ZArith Bool.
From Muscle Require Import Gen.Consts Refl.Base Refl.Tree Refl.Matcher Refl.Traverse Refl.Session Refl.Server Refl.Route
  Refl.TravBase Refl.TraverseProofs Refl.TraverseTheorems Refl.TraverseExit Refl.TravWitness Refl.RouteProofs Refl.RouteRun
  Refl.RouteWitness Pat.Ere Pat.Translate Refl.ClauseKeys Refl.PatInst
  Refl.BaseProofs Refl.ServerProofs Refl.RouteReach Refl.RouteInbox.
Import ListNotations.

(* The theorems below are about the repaired code: the C++ sources gen/gen_consts.py took the c_c05_* constants from must not contain the
   as-found text of F12 (guard), F19 (once per session), F20 (default route), F52 (lookup keys of a comma list unescaped
   twice), F63 (empty items of a comma list not looked up), and PassMessageCallbackAux must return NODE_DEPTH_SESSIONNAME, DumbReflectSession must start with both
   gateway/neighbour flags set. *)
Theorem code_is_repaired :
  (c_c05_guard_as_found, c_c05_once_as_found, c_c05_route_as_found, c_c05_uvkeys_as_found, c_c05_uvempty_as_found) = (0, 0, 0, 0, 0)%N /\
  (c_c05_pass_returns_session_depth, c_c05_default_flags_gw_and_nb) = (1, 1)%N /\ r_as_is = r_all_fixed /\
  (forall st, clause_keys st = clause_keys_all st).
Proof. exact (conj eq_refl (conj eq_refl (conj eq_refl (fun st => eq_refl)))). Qed.
Print Assumptions code_is_repaired.

(* The set of nodes a wildcard traversal (NodePathMatcher::DoTraversal with a callback that goes on, repaired guard)
   calls back on is duplicate-free and identical to the set obtained by testing every node's path below the start
   node with PathMatcher::MatchesPath -- for every tree, every set of patterns (any depths, any mixture of clauses
   taking the hash-lookup or the iteration path), every start node, with and without filters.
   Premises: the clause laws of C15 (a clause that reports lookup keys matches exactly those names; the "matches only
   its keys" half is needed only of the names [okname] that occur in the tree, e.g. non-empty strings), tree and table
   well-formedness. *)
Theorem traversal_eq_bruteforce :
  forall (M : MatchOps) (okname : name -> Prop),
    (forall (c : clause) (ks : list name) (k : name), okname k -> ckeys c = Some ks -> cmatch c k = true -> In k ks) ->
    (forall (c : clause) (ks : list name) (k : name), ckeys c = Some ks -> In k ks -> cmatch c k = true) ->
    forall (t : tree) (m : matcher) (root : path) (use_filters : bool),
      tree_wf t -> matcher_wf m -> (forall n, In n t -> Forall okname (n_path n)) ->
      NoDup (map n_path (visits t m root use_filters true)) /\
      (forall n, In n (visits t m root use_filters true) <-> selected t m root use_filters n).
Proof. exact @traversal_eq_bruteforce_lemma. Qed.
Print Assumptions traversal_eq_bruteforce.

(* every table PutPathsFromMessage builds satisfies the table premise *)
Theorem built_matchers_are_wf : forall (M : MatchOps) (l : list (pat * option qfilter)), matcher_wf (m_of_list l).
Proof. exact @m_of_list_wf. Qed.
Print Assumptions built_matchers_are_wf.

(* F12: with the guard as found in the code (it counts clause-count groups, not patterns) the statement fails *)
Theorem traversal_refuted_with_group_count_guard :
  exists (t : tree) (m : matcher) (n : node),
    tree_wf t /\ matcher_wf m /\ In n (visits t m [] true false) /\ matches_path m (n_path n) (Some (n_data n)) = false.
Proof. exact traversal_refuted_with_group_count_guard_lemma. Qed.
Print Assumptions traversal_refuted_with_group_count_guard.

(* non-vacuity: the premises of traversal_eq_bruteforce are satisfiable by a non-trivial tree, table and clause laws *)
Example premises_satisfiable :
  tree_wf f12_tree /\ matcher_wf f12_matcher /\
  (forall (c : clause) (ks : list name) (k : name), True -> ckeys c = Some ks -> cmatch c k = true -> In k ks) /\
  map n_path (visits f12_tree f12_matcher [] true true) = [[jeremy; kate]; [kevin; joe]].
Proof. exact (conj f12_tree_wf (conj f12_matcher_wf (conj (fun c ks k _ => wkeys_sound c ks k) f12_fixed_visits))). Qed.

(* A client-to-client Message (what code outside the PR_COMMAND range) handed to MessageReceivedFromGateway of session s
   is appended EXACTLY ONCE to the outgoing queue of every session that [route_targets] selects and to no other queue,
   and nothing else changes.  [route_targets] is the statement of the property as a function: with PR_NAME_KEYS, the
   sessions that own (second path component) at least one node whose full path matches at least one pattern and passes
   that pattern's filter (PathMatcher::MatchesPath over every node: [gets]); without keys the stored default route if the
   sender set one, else every session if the sender's gateway-to-neighbours flag is set; the sender itself only with
   reflect-to-self; [put_inbox] then applies the receiver's neighbours-to-gateway flag.
   Premises: clause laws (C15), tree well-formedness, distinct session ids, a well-formed default-route table. *)
Theorem deliver_once :
  forall (M : MatchOps) (okname : name -> Prop),
    (forall (c : clause) (ks : list name) (k : name), okname k -> ckeys c = Some ks -> cmatch c k = true -> In k ks) ->
    (forall (c : clause) (ks : list name) (k : name), ckeys c = Some ks -> In k ks -> cmatch c k = true) ->
    forall (st : rstate) (s : sid) (ss : session) (ri : rinfo) (m : umsg),
      tree_wf (sv_tree (rs_srv st)) -> (forall n, In n (sv_tree (rs_srv st)) -> Forall okname (n_path n)) ->
      NoDup (map s_id (sv_sessions (rs_srv st))) -> matcher_wf (ri_route ri) ->
      get_session (rs_srv st) s = Some ss -> get_info st s = Some ri -> in_cmd_range (u_what m) = false ->
      route_msg r_all_fixed st s m
      = mkRS (rs_srv st)
             (map (fun x => if route_targets st s ri m (ri_id x)
                            then put_inbox s (mkD s (u_tag m) (overwrite (u_session m) (s_name ss))) x else x) (rs_info st)).
Proof. exact @deliver_once_lemma. Qed.
Print Assumptions deliver_once.

(* the traversal behind it, for any table: one delivery per selected session *)
Theorem pass_traversal_delivers_once :
  forall (M : MatchOps) (okname : name -> Prop),
    (forall (c : clause) (ks : list name) (k : name), okname k -> ckeys c = Some ks -> cmatch c k = true -> In k ks) ->
    (forall (c : clause) (ks : list name) (k : name), ckeys c = Some ks -> In k ks -> cmatch c k = true) ->
    forall (st : rstate) (s : sid) (self_ok : bool) (d : dlv) (mt : matcher),
      tree_wf (sv_tree (rs_srv st)) -> (forall n, In n (sv_tree (rs_srv st)) -> Forall okname (n_path n)) -> matcher_wf mt ->
      pass_traversal r_all_fixed st s self_ok d mt
      = map (fun ri => if gets st s self_ok mt (ri_id ri) then put_inbox s d ri else ri) (rs_info st).
Proof. exact @pass_traversal_once. Qed.
Print Assumptions pass_traversal_delivers_once.

(* For every event, every state and every setting of the repairs: each outgoing queue afterwards is a queue from before
   with copies of the event's own Message appended, or a new empty one. *)
Theorem queues_only_grow :
  forall (M : MatchOps) (fx : rfixes) (st : rstate) (ev : revent) (ri' : rinfo),
    In ri' (rs_info (rstep fx st ev)) ->
    (exists ri, In ri (rs_info st) /\ grown_by (ev_dlv st ev) ri ri') \/ ri_inbox ri' = [].
Proof. exact @step_appends. Qed.
Print Assumptions queues_only_grow.

(* FIFO per pair, for every history: a queue at the end is the queue it started from (or an empty one) followed by a
   stuttering subsequence of the Messages handed in during the history, in the order they were handed in -- so the
   Messages of one sender reach any one receiver in the order sent.  (With deliver_once the subsequence does not stutter.) *)
Theorem fifo_per_pair :
  forall (M : MatchOps) (fx : rfixes) (evs : list revent) (st : rstate) (ri' : rinfo),
    In ri' (rs_info (rrun fx evs st)) ->
    exists pre l, ri_inbox ri' = pre ++ l /\
                  (pre = [] \/ exists ri, In ri (rs_info st) /\ ri_id ri = ri_id ri' /\ pre = ri_inbox ri) /\
                  stutter_sub l (log fx st evs).
Proof. exact @fifo_lemma. Qed.
Print Assumptions fifo_per_pair.

(* the sender-identity field of every Message handed to the routing code names the session it came in on: a string field
   has that session's id string as its first value, an absent field stays absent (ReplaceString(false, ...)) *)
Theorem sender_field_true :
  forall (M : MatchOps) (st : rstate) (ev : revent) (d : dlv),
    In d (ev_dlv st ev) ->
    exists s ss m, ev = RCmd s (RMsg m) /\ get_session (rs_srv st) s = Some ss /\ d_from d = s /\ d_tag d = u_tag m /\
                   d_field d = overwrite (u_session m) (s_name ss) /\
                   (forall v r, d_field d = SStr (v :: r) -> v = s_name ss) /\
                   (u_session m = SAbsent -> d_field d = SAbsent).
Proof. exact @sender_field_lemma. Qed.
Print Assumptions sender_field_true.

(* F19: in the model of the code as found one Message is queued twice for a session with two matching depth-3 nodes *)
Theorem deliver_once_refuted_as_found :
  exists evs : list revent, exists d : dlv,
    inbox_of (rrun r_as_found evs empty_rstate) 1%N = [d; d] /\ inbox_of (rrun r_all_fixed evs empty_rstate) 1%N = [d].
Proof. exact deliver_once_refuted_as_found_lemma. Qed.
Print Assumptions deliver_once_refuted_as_found.

(* F20: in the model of the code as found the default route is ignored (the keyless Message is broadcast) *)
Theorem default_route_refuted_as_found :
  exists evs : list revent, exists d : dlv,
    inbox_of (rrun r_as_found evs empty_rstate) 2%N = [d] /\ inbox_of (rrun r_all_fixed evs empty_rstate) 2%N = [] /\
    inbox_of (rrun r_all_fixed evs empty_rstate) 1%N = [d].
Proof. exact default_route_refuted_as_found_lemma. Qed.
Print Assumptions default_route_refuted_as_found.

(* non-vacuity: a state reached by client commands (three sessions, one of them storing two nodes) satisfies the premises of
   deliver_once *)
Example deliver_once_premises_satisfiable :
  tree_wf (sv_tree (rs_srv setup_state)) /\ NoDup (map s_id (sv_sessions (rs_srv setup_state))) /\
  length (sv_tree (rs_srv setup_state)) = 6 /\
  (exists ss ri, get_session (rs_srv setup_state) 0%N = Some ss /\ get_info setup_state 0%N = Some ri /\ matcher_wf (ri_route ri)).
Proof. exact setup_state_wf. Qed.

(* ---- every server tree reachable by client commands ----
   The server part of a routing state evolves by the handlers of Refl/Server.v (SETDATA, REMOVEDATA, subscriptions, BATCH,
   sessions arriving and leaving).  With C04's invariant (run_inv) every state reached from the empty server by ANY
   history satisfies the premises of deliver_once; what remains: the clause laws (C04's class MatchLaws), fewer than 2^31
   subscriptions in the history, and a session arrives under a fresh (host, session name) pair. *)
Theorem reachable_states_satisfy_premises :
  forall (M : MatchOps) (L : MatchLaws M) (evs : list revent),
    small (run_budget (flat_map srv_ev evs)) -> wf_run (srv_fixes r_all_fixed) empty_server (flat_map srv_ev evs) ->
    tree_wf (sv_tree (rs_srv (rrun r_all_fixed evs empty_rstate))) /\
    NoDup (map s_id (sv_sessions (rs_srv (rrun r_all_fixed evs empty_rstate)))) /\
    routes_wf (rrun r_all_fixed evs empty_rstate).
Proof. exact @reachable_premises_lemma. Qed.
Print Assumptions reachable_states_satisfy_premises.

Theorem deliver_once_reachable :
  forall (M : MatchOps) (L : MatchLaws M) (evs : list revent) (s : sid) (ss : session) (ri : rinfo) (m : umsg),
    small (run_budget (flat_map srv_ev evs)) -> wf_run (srv_fixes r_all_fixed) empty_server (flat_map srv_ev evs) ->
    let st := rrun r_all_fixed evs empty_rstate in
    get_session (rs_srv st) s = Some ss -> get_info st s = Some ri -> in_cmd_range (u_what m) = false ->
    rstep r_all_fixed st (RCmd s (RMsg m))
    = mkRS (rs_srv st)
           (map (fun x => if route_targets st s ri m (ri_id x)
                          then put_inbox s (mkD s (u_tag m) (overwrite (u_session m) (s_name ss))) x else x) (rs_info st)).
Proof. exact @deliver_once_reachable_lemma. Qed.
Print Assumptions deliver_once_reachable.

(* non-vacuity: a history of three arrivals and a SETDATA satisfies the side conditions, for an instance satisfying MatchLaws *)
Example reachable_side_conditions_satisfiable :
  small (run_budget (flat_map srv_ev setup)) /\ wf_run (srv_fixes r_all_fixed) empty_server (flat_map srv_ev setup).
Proof. exact setup_side_conditions. Qed.

(* The filter side of deliver_once, spelled out: session r is a target of a keyed Message iff it may be sent to and owns a
   node that some pattern of the table matches clause by clause and whose Message passes THAT pattern's filter; and which
   filter belongs to which key (PathMatcher::PutPathsFromMessage: value i of the filters field, else the previous one). *)
Theorem targets_filter_side :
  forall (M : MatchOps) (st : rstate) (s : sid) (self_ok : bool) (mt : matcher) (r : sid),
    matcher_wf mt ->
    (gets st s self_ok mt r = true <->
     eligible s self_ok r = true /\
     exists n e, In n (sv_tree (rs_srv st)) /\ In e (all_entries mt) /\ owned_by (sv_sessions (rs_srv st)) r n = true /\
                 pat_matches (e_pat e) (n_path n) = true /\ filter_ok (e_flt e) (Some (n_data n)) = true).
Proof. exact @gets_spec. Qed.
Print Assumptions targets_filter_side.

Theorem filters_align_with_keys :
  forall (M : MatchOps) (keys : list spath) (flts : list (option qfilter)) (cur : option qfilter),
    (length keys <= length flts ->
     paths_from_message keys flts cur = combine (map fix_path keys) (firstn (length keys) flts)) /\
    paths_from_message keys [] cur = map (fun k => (fix_path k, cur)) keys.
Proof. intros M keys flts cur. exact (conj (paths_from_message_aligned keys flts cur) (paths_from_message_bleed keys cur)). Qed.
Print Assumptions filters_align_with_keys.

(* The traversal seen through the public API.
   FindMatchingSessions(path, filter, results, includeSelf, no limit): exactly the sessions owning a node the pattern and
   its filter accept, each once, the caller only if asked for (the callback returns "skip to the next session"). *)
Theorem find_sessions_exact :
  forall (M : MatchOps) (okname : name -> Prop),
    (forall (c : clause) (ks : list name) (k : name), okname k -> ckeys c = Some ks -> cmatch c k = true -> In k ks) ->
    (forall (c : clause) (ks : list name) (k : name), ckeys c = Some ks -> In k ks -> cmatch c k = true) ->
    forall (st : rstate) (s : sid) (sp : spath) (f : option qfilter) (include_self : bool),
      tree_wf (sv_tree (rs_srv st)) -> (forall n, In n (sv_tree (rs_srv st)) -> Forall okname (n_path n)) ->
      fix_path sp <> [] ->
      NoDup (find_sessions r_all_fixed st s sp f include_self None) /\
      (forall r, In r (find_sessions r_all_fixed st s sp f include_self None) <->
                 (include_self = true \/ r <> s) /\
                 existsb (fun n => owned_by (sv_sessions (rs_srv st)) r n &&
                                   matches_path (m_put empty_matcher (fix_path sp) f) (n_path n) (Some (n_data n)))
                         (sv_tree (rs_srv st)) = true).
Proof. exact @find_sessions_lemma. Qed.
Print Assumptions find_sessions_exact.

(* FindMatchingNodes / FindNodesCallback with a result limit k >= 1 (the callback returns -1, "abort now", at the k-th
   node): the first k nodes of the unlimited traversal -- for any callback-independent part of the state, any setting of the
   repairs; with traversal_eq_bruteforce: k distinct accepted nodes, or all of them *)
Theorem find_nodes_limit :
  forall (M : MatchOps) (fx : rfixes) (t : tree) (m : matcher) (root : path) (uf : bool) (k : nat),
    1 <= k -> find_nodes fx t m root uf (Some k) = firstn k (visits t m root uf (rf_guard fx)).
Proof. exact @find_nodes_limit_lemma. Qed.
Print Assumptions find_nodes_limit.

(* ---- the clause laws are not only premises: the instance used by the correspondence run satisfies them ---- *)

(* The MatchOps instance [pat_ops] (Refl/PatInst.v) = C15's model of regex/StringMatcher.cpp + the lookup-key parsing of
   DoTraversalAux / DoDirectChildLookup (repaired, F52).  Its lookup keys are exactly the names its clause matches, for
   every name that is the number of a non-empty string -- by C15's laws unique_sound and uvlist_sound. *)
Theorem clause_laws_hold :
  forall (tbl : name -> list N) (untbl : list N -> name), (forall s, tbl (untbl s) = s) ->
    (forall (c : list N) (ks : list name) (k : name),
       okname tbl untbl k -> pkeys untbl true c = Some ks -> pmatch tbl c k = true -> In k ks) /\
    (forall (c : list N) (ks : list name) (k : name), pkeys untbl true c = Some ks -> In k ks -> pmatch tbl c k = true).
Proof. intros tbl untbl H. exact (conj (pkeys_sound tbl untbl) (pkeys_complete tbl untbl H)). Qed.
Print Assumptions clause_laws_hold.

(* traversal_eq_bruteforce without clause premises, for the StringMatcher model *)
Theorem traversal_eq_bruteforce_stringmatcher :
  forall (tbl : name -> list N) (untbl : list N -> name), (forall s, tbl (untbl s) = s) ->
  forall (t : tree) (m : @matcher (pat_ops tbl untbl true)) (root : path) (use_filters : bool),
    tree_wf t -> matcher_wf m -> (forall n, In n t -> Forall (okname tbl untbl) (n_path n)) ->
    NoDup (map n_path (@visits (pat_ops tbl untbl true) t m root use_filters true)) /\
    (forall n, In n (@visits (pat_ops tbl untbl true) t m root use_filters true) <->
               @selected (pat_ops tbl untbl true) t m root use_filters n).
Proof.
  intros tbl untbl H.
  exact (@traversal_eq_bruteforce_lemma (pat_ops tbl untbl true) (okname tbl untbl) (pkeys_sound tbl untbl) (pkeys_complete tbl untbl H)).
Qed.
Print Assumptions traversal_eq_bruteforce_stringmatcher.

(* deliver_once without clause premises, for the StringMatcher model *)
Theorem deliver_once_stringmatcher :
  forall (tbl : name -> list N) (untbl : list N -> name), (forall s, tbl (untbl s) = s) ->
  forall (st : @rstate (pat_ops tbl untbl true)) (s : sid) (ss : @session (pat_ops tbl untbl true))
         (ri : @rinfo (pat_ops tbl untbl true)) (m : @umsg (pat_ops tbl untbl true)),
    tree_wf (sv_tree (rs_srv st)) -> (forall n, In n (sv_tree (rs_srv st)) -> Forall (okname tbl untbl) (n_path n)) ->
    NoDup (map s_id (sv_sessions (rs_srv st))) -> matcher_wf (ri_route ri) ->
    get_session (rs_srv st) s = Some ss -> get_info st s = Some ri -> in_cmd_range (u_what m) = false ->
    route_msg r_all_fixed st s m
    = mkRS (rs_srv st)
           (map (fun x => if route_targets st s ri m (ri_id x)
                          then put_inbox s (mkD s (u_tag m) (overwrite (u_session m) (s_name ss))) x else x) (rs_info st)).
Proof.
  intros tbl untbl H.
  exact (@deliver_once_lemma (pat_ops tbl untbl true) (okname tbl untbl) (pkeys_sound tbl untbl) (pkeys_complete tbl untbl H)).
Qed.
Print Assumptions deliver_once_stringmatcher.

(* F52: with the key parsing as found a list-of-unique-values clause reports a lookup key it does not match
   (the clause a\\b,c looks up ab), so the clause law fails; the repaired parsing reports a\b and c *)
Theorem uvkeys_refuted_as_found :
  exists (p k : list N),
    is_uvlist (sm_of ere_engine p) = true /\
    (exists ks, clause_keys_with false (sm_of ere_engine p) = Some ks /\ In k ks) /\
    matches (sm_of ere_engine p) k = false /\
    clause_keys_with true (sm_of ere_engine p) = Some [[97; 92; 98]; [99]]%N.
Proof. exact uvkeys_refuted_as_found_lemma. Qed.
Print Assumptions uvkeys_refuted_as_found.

(* ---- whole histories, and the StringMatcher model without any clause premise ---- *)

(* the routing record of an attached session always exists (ids of records = ids of sessions, in every reachable state), so
   deliver_once_reachable needs no hypothesis about it *)
Theorem deliver_once_reachable_full :
  forall (M : MatchOps) (L : MatchLaws M) (evs : list revent) (s : sid) (ss : session) (m : umsg),
    small (run_budget (flat_map srv_ev evs)) -> wf_run (srv_fixes r_all_fixed) empty_server (flat_map srv_ev evs) ->
    let st := rrun r_all_fixed evs empty_rstate in
    get_session (rs_srv st) s = Some ss -> in_cmd_range (u_what m) = false ->
    exists ri, get_info st s = Some ri /\
      rstep r_all_fixed st (RCmd s (RMsg m))
      = mkRS (rs_srv st)
             (map (fun x => if route_targets st s ri m (ri_id x)
                            then put_inbox s (mkD s (u_tag m) (overwrite (u_session m) (s_name ss))) x else x) (rs_info st)).
Proof. exact @deliver_once_reachable_full_lemma. Qed.
Print Assumptions deliver_once_reachable_full.

(* The WHOLE outgoing queue of a session at the end of ANY history from the empty server equals [expected_inbox]: the
   concatenation, in the order sent, of exactly the Messages addressed to it ([route_targets], and its own
   neighbours-to-gateway flag) since it arrived -- exactly once each, nothing else, in order. *)
Theorem inbox_closed_form :
  forall (M : MatchOps) (L : MatchLaws M) (evs : list revent) (r : sid) (x' : rinfo),
    small (run_budget (flat_map srv_ev evs)) -> wf_run (srv_fixes r_all_fixed) empty_server (flat_map srv_ev evs) ->
    get_info (rrun r_all_fixed evs empty_rstate) r = Some x' -> ri_inbox x' = expected_inbox empty_rstate evs r [].
Proof. exact @inbox_closed_form_lemma. Qed.
Print Assumptions inbox_closed_form.

Example inbox_closed_form_example :
  expected_inbox empty_rstate f19_history 1%N [] = [mkD 0%N 7%N SAbsent] /\
  expected_inbox empty_rstate f19_history 2%N [] = [] /\
  small (run_budget (flat_map srv_ev f19_history)).
Proof. exact f19_expected_inbox. Qed.

(* With both repairs of DoTraversalAux's key parsing (F52, F63) every item of a list pattern is a lookup key, and the clause
   law holds of every canonical name, the empty one included (C15: unique_sound, uvlist_exact). *)
Theorem clause_laws_hold_all_items :
  forall (tbl : name -> list N) (untbl : list N -> name), (forall s, tbl (untbl s) = s) ->
    (forall (c : list N) (ks : list name) (k : name),
       canon tbl untbl k -> pkeys_all untbl c = Some ks -> pmatch tbl c k = true -> In k ks) /\
    (forall (c : list N) (ks : list name) (k : name), pkeys_all untbl c = Some ks -> In k ks -> pmatch tbl c k = true).
Proof. intros tbl untbl H. exact (conj (pkeys_all_sound tbl untbl) (pkeys_all_complete tbl untbl H)). Qed.
Print Assumptions clause_laws_hold_all_items.

(* The instance pat_ops_n (the one the extracted model runs with once both repairs are in the sources) satisfies C04's
   class MatchLaws outright, and on every canonical name it IS the StringMatcher model. *)
Theorem stringmatcher_instance_matchlaws :
  forall (tbl : name -> list N) (untbl : list N -> name), MatchLaws (pat_ops_n tbl untbl).
Proof. exact PatLaws. Qed.
Print Assumptions stringmatcher_instance_matchlaws.

Theorem stringmatcher_instance_is_the_model :
  forall (tbl : name -> list N) (untbl : list N -> name), (forall s, tbl (untbl s) = s) ->
  forall (c : list N) (k : name), canon tbl untbl k -> pmatch_n tbl untbl c k = pmatch tbl c k.
Proof. exact pmatch_n_agrees. Qed.
Print Assumptions stringmatcher_instance_is_the_model.

(* ... hence, for the StringMatcher model, with NO clause premise: every reachable state satisfies the invariants,
   deliver_once holds in it, and whole queues have the closed form *)
Theorem reachable_states_satisfy_premises_stringmatcher :
  forall (tbl : name -> list N) (untbl : list N -> name) (evs : list (@revent (pat_ops_n tbl untbl))),
    small (run_budget (flat_map srv_ev evs)) ->
    @wf_run (pat_ops_n tbl untbl) (srv_fixes r_all_fixed) empty_server (flat_map srv_ev evs) ->
    tree_wf (sv_tree (rs_srv (rrun r_all_fixed evs empty_rstate))) /\
    NoDup (map s_id (sv_sessions (rs_srv (rrun r_all_fixed evs empty_rstate)))) /\
    routes_wf (rrun r_all_fixed evs empty_rstate) /\ aligned (rrun r_all_fixed evs empty_rstate).
Proof.
  intros tbl untbl evs HB HW.
  exact (match @reachable_premises_lemma _ (PatLaws tbl untbl) evs HB HW with
         | conj H1 (conj H2 H3) => conj H1 (conj H2 (conj H3 (reachable_aligned r_all_fixed evs)))
         end).
Qed.
Print Assumptions reachable_states_satisfy_premises_stringmatcher.

Theorem deliver_once_reachable_stringmatcher :
  forall (tbl : name -> list N) (untbl : list N -> name)
         (evs : list (@revent (pat_ops_n tbl untbl))) (s : sid) (ss : @session (pat_ops_n tbl untbl)) (m : @umsg (pat_ops_n tbl untbl)),
    small (run_budget (flat_map srv_ev evs)) ->
    @wf_run (pat_ops_n tbl untbl) (srv_fixes r_all_fixed) empty_server (flat_map srv_ev evs) ->
    let st := rrun r_all_fixed evs empty_rstate in
    get_session (rs_srv st) s = Some ss -> in_cmd_range (u_what m) = false ->
    exists ri, get_info st s = Some ri /\
      rstep r_all_fixed st (RCmd s (RMsg m))
      = mkRS (rs_srv st)
             (map (fun x => if route_targets st s ri m (ri_id x)
                            then put_inbox s (mkD s (u_tag m) (overwrite (u_session m) (s_name ss))) x else x) (rs_info st)).
Proof. intros tbl untbl. exact (@deliver_once_reachable_full_lemma _ (PatLaws tbl untbl)). Qed.
Print Assumptions deliver_once_reachable_stringmatcher.

Theorem inbox_closed_form_stringmatcher :
  forall (tbl : name -> list N) (untbl : list N -> name)
         (evs : list (@revent (pat_ops_n tbl untbl))) (r : sid) (x' : @rinfo (pat_ops_n tbl untbl)),
    small (run_budget (flat_map srv_ev evs)) ->
    @wf_run (pat_ops_n tbl untbl) (srv_fixes r_all_fixed) empty_server (flat_map srv_ev evs) ->
    get_info (rrun r_all_fixed evs empty_rstate) r = Some x' -> ri_inbox x' = expected_inbox empty_rstate evs r [].
Proof. intros tbl untbl. exact (@inbox_closed_form_lemma _ (PatLaws tbl untbl)). Qed.
Print Assumptions inbox_closed_form_stringmatcher.
