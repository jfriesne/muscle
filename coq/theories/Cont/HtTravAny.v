(* C09 -- what holds for a live iterator under ANY operations, relinking ones included: whatever it
   points at is a live entry of its table (it never yields a removed entry), and advancing it without
   further mutations ends after at most as many steps as it has entries left to visit. *)
From Coq Require Import List Arith ZArith NArith PArith Bool Lia FMapPositive Permutation.
From Muscle Require Import Cont.HtModel Cont.HtStep Cont.HtIdeal Cont.HtLemmas Cont.HtRepr Cont.HtWalk Cont.HtIters
                           Cont.HtTable Cont.HtPut Cont.HtPend Cont.HtRefTab Cont.HtInv Cont.HtSafe Cont.HtSafeAll
                           Cont.HtTravW Cont.HtTravOps Cont.HtTravSem Cont.HtTravThm.
Import ListNotations.

Lemma cur_live : forall w i x, WF w -> cur w i = Some x -> In x (it_list w i).
Proof.
  intros w i x W Hc. unfold cur in Hc. unfold it_list, it_owner.
  destruct (geti (its w) i) as [it|] eqn:Hg; [|discriminate].
  destruct (iscr it); [discriminate|]. destruct (iown it) as [t|] eqn:O; [|discriminate].
  apply (proj2 (TL_bounds t _ _ (WF_iter_TL w i it t W Hg O)) i it x Hg O Hc).
Qed.

Section Any.
Variable var : variant.
Variable dcap : N.

(* after any operations whatsoever, the entry under the iterator is a live entry of its table, and
   what the iterator shows is that entry's key and value *)
Theorem iter_yields_live : forall ops w i x, WF w -> cur (run1 var dcap w ops) i = Some x ->
  In x (it_list (run1 var dcap w ops) i).
Proof. intros ops w i x W Hc. apply cur_live; [apply run1_WF; exact W|exact Hc]. Qed.

Lemma sub_before : forall l c, exists s, l = before l c ++ s.
Proof.
  induction l as [|x r IH]; intros c; [exists []; reflexivity|]. cbn [before]. destruct (Pos.eqb x c); [exists (x :: r); reflexivity|].
  destruct (IH c) as (s & E). exists s. cbn [app]. f_equal. exact E.
Qed.

Lemma sub_after : forall l c, exists s, l = s ++ after l c.
Proof.
  induction l as [|x r IH]; intros c; [exists []; reflexivity|]. cbn [after]. destruct (Pos.eqb x c); [exists [x]; reflexivity|].
  destruct (IH c) as (s & E). exists (x :: s). cbn [app]. f_equal. exact E.
Qed.

Lemma rest_of_nodup : forall bw l c, NoDup l -> NoDup (rest_of bw l c).
Proof.
  intros bw l c Hnd. unfold rest_of. destruct bw.
  - destruct (sub_before l c) as (s & E). rewrite E in Hnd. apply nodup_app_l in Hnd. exact Hnd.
  - destruct (sub_after l c) as (s & E). rewrite E in Hnd. apply nodup_app_r in Hnd. exact Hnd.
Qed.

Lemma pending_nodup : forall w i, WF w -> NoDup (pending w i).
Proof.
  intros w i W. unfold pending. destruct (geti (its w) i) as [it|] eqn:Hg; [|constructor].
  destruct (iown it) as [t|] eqn:O; [|constructor].
  pose proof (wf_its _ W i it Hg) as Ht. rewrite O in Ht.
  destruct (tl_tinv _ _ _ (wf_tabs _ W t Ht)) as (l & T). rewrite (tinv_ids _ l T).
  pose proof (lk_nodup _ _ (ti_linked _ _ T)) as Hnd.
  unfold pend. destruct (icookie it) as [c|]; [|constructor].
  destruct (iscr it); cbn [app]; [|apply rest_of_nodup; exact Hnd].
  constructor; [apply rest_of_notin_self; exact Hnd|apply rest_of_nodup; exact Hnd].
Qed.

Lemma pending_le_list : forall w i, WF w -> length (pending w i) <= length (it_list w i).
Proof.
  intros w i W. apply NoDup_incl_length; [apply pending_nodup; exact W|].
  intros n Hn. apply pending_incl; assumption.
Qed.

Lemma adv_shown_none : forall w i, cur (fst (step1 var dcap w (OIterAdv i))) i = None ->
  shown (fst (step1 var dcap w (OIterAdv i))) i = None /\ pending (fst (step1 var dcap w (OIterAdv i))) i = [].
Proof.
  intros w i. cbn [step1]. destruct (geti (its w) i) as [it|] eqn:Hg.
  - cbn [fst]. pose proof (geti_some_lt _ _ _ Hg) as Hi.
    set (it' := match iscr it with Some _ => _ | None => _ end).
    assert (Es : iscr it' = None) by (unfold it'; destruct (iscr it); reflexivity).
    unfold cur, shown, pending. cbn [its seti_w]. rewrite geti_seti_same by exact Hi. rewrite Es.
    destruct (iown it') as [t|]; [|auto]. intros Hk. rewrite Hk. unfold pend. rewrite Hk. auto.
  - cbn [fst]. intros _. unfold shown, pending. rewrite Hg. auto.
Qed.

(* advancing an iterator, with no other operation in between, reaches the end within as many
   steps as it has entries left to visit (plus the one that finds the end) *)
Theorem adv_terminates : forall i n w, WF w -> length (pending w i) < n ->
  shown (run1 var dcap w (repeat (OIterAdv i) n)) i = None.
Proof.
  intros i. induction n as [|m IH]; intros w W Hlt; [lia|].
  cbn [repeat]. change (run1 var dcap w (OIterAdv i :: repeat (OIterAdv i) m))
    with (run1 var dcap (fst (step1 var dcap w (OIterAdv i))) (repeat (OIterAdv i) m)).
  pose proof (step1_WF var dcap w (OIterAdv i) W) as W'.
  destruct (adv_step var dcap w i W) as (_ & _ & _ & _ & Psub & _ & Pc). cbn zeta in *.
  set (w' := fst (step1 var dcap w (OIterAdv i))) in *.
  destruct (cur w' i) as [x|] eqn:Ec.
  - destruct (Pc x eq_refl) as [Hx Hnx].
    assert (L : length (x :: pending w' i) <= length (pending w i)).
    { apply NoDup_incl_length; [constructor; [exact Hnx|apply pending_nodup; exact W']|].
      intros y [<-|Hy]; [exact Hx|apply Psub; exact Hy]. }
    cbn [length] in L. apply IH; [exact W'|lia].
  - destruct (adv_shown_none w i Ec) as [Hs Hp]. fold w' in Hs, Hp.
    destruct m as [|m']; [exact Hs|]. apply IH; [exact W'|rewrite Hp; cbn; lia].
Qed.

Corollary adv_terminates_cnt : forall i w, WF w ->
  shown (run1 var dcap w (repeat (OIterAdv i) (S (length (it_list w i))))) i = None.
Proof. intros i w W. apply adv_terminates; [exact W|]. pose proof (pending_le_list w i W). lia. Qed.

End Any.
