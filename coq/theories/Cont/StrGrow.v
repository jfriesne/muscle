(* C17 -- arithmetic of String::GetNextBufferSize / NextPowerOfTwo (uint32): for requests up to 2^30 the
   next buffer size is at least the request and below 2^31; above that the doubling wraps around.  The class
   str_params, what all level-1 proofs assume of the constants, is stated here, where its facts are first needed. *)
From Coq Require Import List NArith ZArith Bool Lia.
From Muscle Require Import Cont.StrL0 Cont.StrModel.
Local Open Scope N_scope.

Lemma lor_ge a b : a <= N.lor a b.
Proof.
  assert (E : N.lor a b = a + N.ldiff b a).
  { rewrite N.add_nocarry_lxor.
    - rewrite N.lxor_lor.
      + apply N.bits_inj. intros n. rewrite !N.lor_spec, N.ldiff_spec.
        destruct (N.testbit a n), (N.testbit b n); reflexivity.
      + apply N.bits_inj. intros n. rewrite N.land_spec, N.ldiff_spec, N.bits_0.
        destruct (N.testbit a n), (N.testbit b n); reflexivity.
    - apply N.bits_inj. intros n. rewrite N.land_spec, N.ldiff_spec, N.bits_0.
      destruct (N.testbit a n), (N.testbit b n); reflexivity. }
  lia.
Qed.

Lemma lor_lt_pow2 a b k : a < 2 ^ k -> b < 2 ^ k -> N.lor a b < 2 ^ k.
Proof.
  intros Ha Hb.
  destruct (N.eq_dec a 0) as [->|Na]; [now rewrite N.lor_0_l|].
  destruct (N.eq_dec b 0) as [->|Nb]; [now rewrite N.lor_0_r|].
  assert (P : 0 < N.lor a b) by (pose proof (lor_ge a b); lia).
  apply N.log2_lt_pow2; [assumption|]. rewrite N.log2_lor.
  apply N.log2_lt_pow2 in Ha; [|lia]. apply N.log2_lt_pow2 in Hb; [|lia]. lia.
Qed.

Lemma shiftr_le a n : N.shiftr a n <= a.
Proof.
  rewrite N.shiftr_div_pow2. apply N.div_le_upper_bound.
  - apply N.pow_nonzero. discriminate.
  - assert (2 ^ n <> 0) by (apply N.pow_nonzero; discriminate). nia.
Qed.

Definition smear (n : N) : N :=
  let n := N.lor n (N.shiftr n 1) in
  let n := N.lor n (N.shiftr n 2) in
  let n := N.lor n (N.shiftr n 4) in
  let n := N.lor n (N.shiftr n 8) in
  N.lor n (N.shiftr n 16).

Lemma smear_step_lt n k j : n < 2 ^ j -> N.lor n (N.shiftr n k) < 2 ^ j.
Proof. intros H. apply lor_lt_pow2; [assumption|]. pose proof (shiftr_le n k). lia. Qed.

Lemma smear_ge n : n <= smear n.
Proof.
  unfold smear.
  eapply N.le_trans; [apply (lor_ge n (N.shiftr n 1))|].
  eapply N.le_trans; [apply lor_ge|].
  eapply N.le_trans; [apply lor_ge|].
  eapply N.le_trans; [apply lor_ge|].
  apply lor_ge.
Qed.
Lemma smear_lt n j : n < 2 ^ j -> smear n < 2 ^ j.
Proof. intros H. unfold smear. repeat apply smear_step_lt. exact H. Qed.

Lemma npot_smear n : npot n = u32 (smear (u32 (n + 4294967295)) + 1).
Proof. reflexivity. Qed.

Lemma npot_bounds n : 1 <= n -> n <= 2147483648 -> n <= npot n /\ npot n <= 2147483648.
Proof.
  intros H1 H2. rewrite npot_smear.
  assert (E : u32 (n + 4294967295) = n - 1).
  { unfold u32. replace (n + 4294967295) with ((n - 1) + 1 * 4294967296) by lia.
    rewrite N.mod_add by discriminate. apply N.mod_small. lia. }
  rewrite E.
  pose proof (smear_ge (n - 1)) as G.
  assert (L : smear (n - 1) < 2 ^ 31) by (apply smear_lt; change (2 ^ 31) with 2147483648; lia).
  change (2 ^ 31) with 2147483648 in L.
  unfold u32. rewrite N.mod_small by lia. lia.
Qed.

(* what is assumed of the parameters of the level-1 model (the translated constants meet it, StrProofs.v).  [jk] is
   not constrained: it is an index so that the instance in scope determines all five parameters of the level-1 functions *)
Class str_params (M TH PG OV jk : N) : Prop := {
  M_pos : 1 <= M; TH_ge : 2 <= TH; PG_pos : 0 < PG; PG_le : PG <= 1048576; OV_lt : OV < PG; M_le : M <= 1048576 }.

Section Grow.
Context {M TH PG OV jk : N} {P : str_params M TH PG OV jk}.

Lemma next_buf_size_ok req :
  1 <= req -> req <= 1073741824 ->
  req <= next_buf_size M TH PG OV req /\ next_buf_size M TH PG OV req < 2147483648.
Proof.
  intros H1 H2. destruct P. unfold next_buf_size.
  destruct (req <? TH) eqn:E; [lia|]. apply N.ltb_ge in E.
  assert (X : u32 ((req - 1) * 2) = (req - 1) * 2) by (unfold u32; apply N.mod_small; lia).
  rewrite X.
  destruct (npot_bounds ((req - 1) * 2)) as [B1 B2]; try lia.
  destruct (npot ((req - 1) * 2) <? PG - OV) eqn:E2.
  - apply N.ltb_lt in E2. lia.
  - assert (U1 : u32 (req + OV) = req + OV) by (unfold u32; apply N.mod_small; lia).
    rewrite U1.
    pose proof (N.mul_succ_div_gt (req + OV) PG ltac:(lia)) as D.
    pose proof (N.mul_div_le (req + OV) PG ltac:(lia)) as D2.
    set (q := (req + OV) / PG) in *.
    assert (U2 : u32 ((q + 1) * PG) = (q + 1) * PG) by (unfold u32; apply N.mod_small; nia).
    rewrite U2.
    assert (U3 : u32 ((q + 1) * PG + 4294967296 - OV) = (q + 1) * PG - OV).
    { unfold u32. replace ((q + 1) * PG + 4294967296 - OV) with (((q + 1) * PG - OV) + 1 * 4294967296) by nia.
      rewrite N.mod_add by discriminate. apply N.mod_small. nia. }
    rewrite U3. nia.
Qed.

End Grow.

(* the doubling wraps for requests above 2^30: the size computed for 2^30+2 bytes is 0 *)
Example next_buf_size_wraps : next_buf_size 15 32 4096 12 1073741826 = 0.
Proof. vm_compute. reflexivity. Qed.
