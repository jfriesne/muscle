(* C09 -- exact effect of the MoveTo*Aux family on the represented list and on the iterators. *)
From Coq Require Import List Arith ZArith NArith PArith Bool Lia FMapPositive Permutation.
From Muscle Require Import Cont.HtModel Cont.HtLemmas Cont.HtRepr Cont.HtWalk Cont.HtIters Cont.HtTable Cont.HtMoves Cont.HtPut.
Import ListNotations.

(* the result of a move: table with list [l'], same data, iterators either untouched or patched *)
Definition moved (h : ht) (I : itab) (e : positive) (l l' : list positive) (r : ht * itab) : Prop :=
  tinv (fst r) l' /\ same_data h (fst r) /\ meta_eq h (fst r) /\
  ((l' = l /\ r = (h, I)) \/ (l' <> l /\ snd r = patch_all h e I)).

Lemma moved_id : forall h I e l, tinv h l -> moved h I e l l (h, I).
Proof. intros. split; [assumption|split; [apply same_data_refl|split; [apply meta_eq_refl|left; auto]]]. Qed.

Lemma last_of_nil_iff : forall (l : list positive), last_of l = None <-> l = [].
Proof. intros l. split; [apply last_of_none|intros ->; reflexivity]. Qed.

Lemma nodup_split_unique : forall (a b p q : list positive) x,
  NoDup (a ++ x :: b) -> a ++ x :: b = p ++ x :: q -> p = a /\ q = b.
Proof.
  induction a as [|y a IH]; intros b p q x Hnd E.
  - destruct p as [|z p']; cbn in E.
    + injection E as Er. auto.
    + injection E as Ez Er. exfalso. cbn in Hnd. apply NoDup_cons_iff in Hnd. destruct Hnd as [Hx _].
      apply Hx. rewrite Er. apply in_elt.
  - destruct p as [|z p']; cbn in E.
    + injection E as Ez Er. exfalso. cbn in Hnd. apply NoDup_cons_iff in Hnd. destruct Hnd as [Hx _].
      apply Hx. rewrite Ez. apply in_elt.
    + injection E as Ez Er. cbn in Hnd. apply NoDup_cons_iff in Hnd. destruct Hnd as [_ Hr].
      destruct (IH b p' q x Hr Er) as [-> ->]. rewrite Ez. auto.
Qed.

(* every member of the family is "unlink e, link it between m1 and m2", skipped when a test [b] finds e
   already there, i.e. when m1 is what stands in front of e now *)
Lemma move_exact : forall h I l1 l2 m1 m2 e (b : bool), tinv h (l1 ++ e :: l2) -> l1 ++ l2 = m1 ++ m2 ->
  (b = true <-> m1 = l1) ->
  moved h I e (l1 ++ e :: l2) (m1 ++ e :: m2)
        (if b then (h, I) else (insert_iter_entry (unlink h e) e (last_of m1), patch_all h e I)).
Proof.
  intros h I l1 l2 m1 m2 e b T E Hb. destruct b.
  - destruct (proj1 Hb eq_refl). apply app_inv_head in E. subst m2. apply moved_id. exact T.
  - destruct (tinv_move h l1 l2 m1 m2 e T E) as (T' & S & M).
    split; [exact T'|split; [exact S|split; [exact M|right]]]. split; [|reflexivity].
    intro H. symmetry in H. apply (nodup_split_unique l1 l2 m1 m2 e (tinv_nodup _ _ T)) in H.
    destruct H as [H _]. apply Hb in H. discriminate.
Qed.

Lemma move_front_exact : forall h I l1 l2 e, tinv h (l1 ++ e :: l2) ->
  moved h I e (l1 ++ e :: l2) (e :: l1 ++ l2) (move_front_aux h I e).
Proof.
  intros h I l1 l2 e T. unfold move_front_aux. rewrite (prev_of_prefix h _ l1 e l2 (ti_linked _ _ T) eq_refl).
  destruct (last_of l1) as [p|] eqn:EL.
  - apply (move_exact h I l1 l2 [] (l1 ++ l2) e false T eq_refl). split; [discriminate|intros <-; discriminate].
  - apply last_of_none in EL. subst l1. apply moved_id. exact T.
Qed.

Lemma move_back_exact : forall h I l1 l2 e, tinv h (l1 ++ e :: l2) ->
  moved h I e (l1 ++ e :: l2) (l1 ++ l2 ++ [e]) (move_back_aux h I e).
Proof.
  intros h I l1 l2 e T. unfold move_back_aux. rewrite (next_of_suffix h _ l1 e l2 (ti_linked _ _ T) eq_refl).
  destruct l2 as [|x l2']; [apply moved_id; exact T|]. cbn [head_opt remove_iter_entry].
  destruct (unlink_linked h l1 (x :: l2') e (ti_linked _ _ T)) as (L1 & _). rewrite (lk_tl _ _ L1), app_assoc.
  apply (move_exact h I l1 (x :: l2') (l1 ++ x :: l2') [] e false T (eq_sym (app_nil_r _))).
  split; [discriminate|]. intros H. rewrite <- (app_nil_r l1) in H at 2. apply app_inv_head in H. discriminate.
Qed.

Lemma move_before_exact : forall h I l1 l2 p q e f, tinv h (l1 ++ e :: l2) -> l1 ++ l2 = p ++ f :: q ->
  moved h I e (l1 ++ e :: l2) (p ++ e :: f :: q) (move_before_aux h I e f).
Proof.
  intros h I l1 l2 p q e f T E. unfold move_before_aux. cbn [remove_iter_entry].
  rewrite (next_of_suffix h _ l1 e l2 (ti_linked _ _ T) eq_refl).
  destruct (unlink_linked h l1 l2 e (ti_linked _ _ T)) as (L1 & _). rewrite E in L1.
  rewrite (prev_of_prefix _ _ p f q L1 eq_refl).
  apply (move_exact h I l1 l2 p (f :: q) e _ T E). rewrite opt_pos_eqb_true. split.
  - intros H. destruct l2 as [|x l2']; [discriminate|]. injection H as ->.
    apply (nodup_split_unique l1 l2' p q f); [eapply nodup_remove_mid; exact (tinv_nodup _ _ T)|exact E].
  - intros ->. apply app_inv_head in E. rewrite E. reflexivity.
Qed.

Lemma move_behind_exact : forall h I l1 l2 p q e d, tinv h (l1 ++ e :: l2) -> l1 ++ l2 = p ++ d :: q ->
  moved h I e (l1 ++ e :: l2) (p ++ d :: e :: q) (move_behind_aux h I e d).
Proof.
  intros h I l1 l2 p q e d T E. unfold move_behind_aux. cbn [remove_iter_entry].
  rewrite (prev_of_prefix h _ l1 e l2 (ti_linked _ _ T) eq_refl).
  assert (E2 : l1 ++ l2 = (p ++ [d]) ++ q) by (rewrite <- app_assoc; exact E).
  pose proof (move_exact h I l1 l2 (p ++ [d]) q e (opt_pos_eqb (last_of l1) (Some d)) T E2) as X.
  rewrite last_of_snoc, <- app_assoc in X. apply X. rewrite opt_pos_eqb_true. split.
  - intros H. destruct (last_of_split _ _ _ H) as (l0 & ->). f_equal.
    rewrite <- app_assoc in E. apply (nodup_split_unique l0 l2 p q d); [|exact E].
    pose proof (nodup_remove_mid _ _ _ (tinv_nodup _ _ T)) as Hnd. rewrite <- app_assoc in Hnd. exact Hnd.
  - intros <-. apply last_of_snoc.
Qed.

(* ------------------------------------------------------------------ MoveToPositionAux *)

Lemma last_of_firstn_S : forall (L : list positive) k, k < length L -> last_of (firstn (S k) L) = nth_error L k.
Proof.
  induction L as [|x L IH]; intros k Hk; [cbn in Hk; lia|].
  destruct k as [|k]; [reflexivity|]. cbn [length] in Hk.
  change (firstn (S (S k)) (x :: L)) with (x :: firstn (S k) L). cbn [nth_error].
  destruct L as [|y L']; [cbn in Hk; lia|].
  change (firstn (S k) (y :: L')) with (y :: firstn k L'). rewrite last_of_cons_cons.
  change (y :: firstn k L') with (firstn (S k) (y :: L')). apply IH. lia.
Qed.

Lemma last_of_firstn : forall (L : list positive) k, 1 <= k <= length L -> last_of (firstn k L) = nth_error L (k - 1).
Proof.
  intros L k [H1 H2]. destruct k as [|k]; [lia|]. replace (S k - 1) with k by lia. apply last_of_firstn_S. lia.
Qed.

Lemma nth_error_mid : forall (m1 m2 : list positive) e, nth_error (m1 ++ e :: m2) (length m1) = Some e.
Proof. intros. rewrite nth_error_app2 by lia. rewrite Nat.sub_diag. reflexivity. Qed.

Lemma nth_error_nodup_pos : forall (l1 l2 : list positive) e i, NoDup (l1 ++ e :: l2) ->
  nth_error (l1 ++ e :: l2) i = Some e -> i = length l1.
Proof.
  intros l1 l2 e i Hnd H. pose proof (nth_error_mid l1 l2 e) as H2.
  assert (Hi : i < length (l1 ++ e :: l2)) by (apply nth_error_Some; congruence).
  assert (Hj : length l1 < length (l1 ++ e :: l2)) by (rewrite app_length; cbn; lia).
  rewrite NoDup_nth_error in Hnd. apply Hnd; [exact Hi|congruence].
Qed.

Lemma move_pos_exact : forall h I l1 l2 e idx, tinv h (l1 ++ e :: l2) ->
  let L := l1 ++ l2 in
  let i := Nat.min idx (length L) in
  moved h I e (l1 ++ e :: l2) (firstn i L ++ e :: skipn i L) (move_pos_aux h I e idx).
Proof.
  intros h I l1 l2 e idx T L i.
  pose proof (tinv_nodup _ _ T) as Hnd.
  assert (Hc : cnt h = S (length L)) by (rewrite (ti_cnt _ _ T); unfold L; rewrite !app_length; cbn [length]; lia).
  unfold move_pos_aux. destruct (idx =? 0) eqn:E0.
  - apply Nat.eqb_eq in E0. subst idx. unfold i. cbn [Nat.min firstn skipn app]. apply move_front_exact. exact T.
  - apply Nat.eqb_neq in E0. destruct (cnt h <=? idx) eqn:E1.
    + apply Nat.leb_le in E1. assert (Ei : i = length L) by (unfold i; lia).
      clearbody i. subst i. rewrite firstn_all, skipn_all. unfold L. rewrite <- app_assoc. apply move_back_exact. exact T.
    + apply Nat.leb_gt in E1. assert (Ei : i = idx) by (unfold i; lia). clearbody i. subst i.
      rewrite (entry_at_linked h _ idx (ti_linked _ _ T) (ti_cnt _ _ T)). cbn [remove_iter_entry].
      destruct (unlink_linked h l1 l2 e (ti_linked _ _ T)) as (L1 & _). fold L in L1. set (h1 := unlink h e) in *.
      assert (Ea : (if idx <? cnt h / 2 then nth_next h1 (hd h1) (idx - 1) else nth_prev h1 (tl h1) (cnt h - 1 - idx))
                   = last_of (firstn idx L)).
      { rewrite last_of_firstn by lia. destruct (idx <? cnt h / 2).
        - rewrite (lk_hd _ _ L1), (nth_next_suffix h1 L L1 (idx - 1) [] L eq_refl). apply head_skipn_nth_error.
        - rewrite (lk_tl _ _ L1), (nth_prev_prefix h1 L L1 _ L [] (eq_sym (app_nil_r L))).
          rewrite head_skipn_nth_error, nth_error_rev by lia. f_equal. lia. }
      rewrite Ea. apply (move_exact h I l1 l2 (firstn idx L) (skipn idx L) e _ T (eq_sym (firstn_skipn idx L))).
      rewrite opt_pos_eqb_true. split.
      * intros H. rewrite (nth_error_nodup_pos l1 l2 e idx Hnd H). unfold L. rewrite firstn_app, firstn_all, Nat.sub_diag. apply app_nil_r.
      * intros H. assert (El : idx = length l1) by (rewrite <- H, firstn_length; lia). rewrite El. apply nth_error_mid.
Qed.
