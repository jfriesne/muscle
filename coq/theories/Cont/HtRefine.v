(* C09 -- refinement, world level: every operation of the code-shaped model (L1) is the ideal
   ordered-map operation (L0) on the abstraction, with the same result. *)
From Coq Require Import List Arith ZArith NArith PArith Bool Lia FMapPositive Permutation.
From Muscle Require Import Cont.HtModel Cont.HtStep Cont.HtIdeal Cont.HtLemmas Cont.HtRepr Cont.HtWalk Cont.HtIters
                           Cont.HtTable Cont.HtMoves Cont.HtPut Cont.HtAbs Cont.HtOrdered
                           Cont.HtRefTab Cont.HtRefQ Cont.HtInv Cont.HtSafe Cont.HtSafeAll.
Import ListNotations.

Lemma abs_tab_mk : forall h f a il, abs_tab (mkHt (nodes h) (hd h) (tl h) (cnt h) (cap h) f a il) = mkT0 (abs h) (cap h) a.
Proof. intros. unfold abs_tab. cbn [cap asort]. f_equal. apply abs_congr; reflexivity. Qed.

Lemma abs_tab_with_ilist : forall h il, abs_tab (with_ilist h il) = abs_tab h.
Proof. intros. apply abs_tab_mk. Qed.

Lemma map_upd_nth : forall A B (f : A -> B) l i x, map f (upd_nth l i x) = upd_nth (map f l) i (f x).
Proof.
  intros. unfold upd_nth. rewrite map_length. destruct (i <? length l); [|reflexivity].
  rewrite map_app, firstn_map. cbn [map]. rewrite skipn_map. reflexivity.
Qed.

Lemma abs_world_put : forall w t h I, abs_world (put_ti w t h I) = sett0 (abs_world w) t (abs_tab h).
Proof. intros. unfold abs_world, put_ti, sett0. cbn [tabs]. apply map_upd_nth. Qed.

Lemma abs_world_sett : forall w t h, abs_world (sett w t h) = sett0 (abs_world w) t (abs_tab h).
Proof. intros. apply abs_world_put. Qed.

Lemma abs_world_seti : forall w I, abs_world (seti_w w I) = abs_world w.
Proof. reflexivity. Qed.

Lemma gett0_abs : forall w t, gett0 (abs_world w) t = abs_tab (gett w t).
Proof.
  intros. unfold gett0, abs_world, gett.
  change (mkT0 [] 0 true) with (abs_tab (empty_ht 0)). apply map_nth.
Qed.

Lemma valid_t0_abs : forall w t, valid_t0 (abs_world w) t = valid_t w t.
Proof. intros. unfold valid_t0, valid_t, abs_world. rewrite map_length. reflexivity. Qed.

Lemma upd_nth_nth_same : forall A (l : list A) i d, upd_nth l i (nth i l d) = l.
Proof.
  intros A l i d. unfold upd_nth. destruct (i <? length l) eqn:E; [|reflexivity]. apply Nat.ltb_lt in E.
  revert i E. induction l as [|x l IH]; intros i E; [cbn in E; lia|].
  destruct i; [reflexivity|]. cbn [firstn skipn nth app]. f_equal. apply IH. cbn in E. lia.
Qed.

Lemma sett0_same : forall w t, sett0 (abs_world w) t (abs_tab (gett w t)) = abs_world w.
Proof. intros w t. rewrite <- gett0_abs. unfold sett0, gett0. apply upd_nth_nth_same. Qed.

Section Ref.
Variable var : variant.
Variable dcap : N.

Definition refines_step (w : world) (o : op) : Prop :=
  abs_world (fst (step1 var dcap w o)) = fst (step0 var dcap (abs_world w) o) /\
  (is_iter_op o = false -> snd (step1 var dcap w o) = snd (step0 var dcap (abs_world w) o)).

Lemma WF_tinv : forall w t, WF w -> t < length (tabs w) -> exists l, tinv (gett w t) l.
Proof. intros w t W Ht. apply (tl_tinv _ _ _ (wf_tabs _ W t Ht)). Qed.

(* [pre]: both steps unfolded at a concrete operation.  [same]: the two sides have become equal.
   [vt1 V], [vt2 V1 V2]: an invalid table index leaves both worlds alone; V, V1, V2 name the bounds of the
   valid ones.  [at_table W V l T]: [pre], [vt1 V], and T : tinv of table t on its id list l *)
Ltac pre := unfold refines_step; cbn [step1 step0 is_iter_op]; rewrite ?valid_t0_abs, ?gett0_abs.
Ltac same := split; [reflexivity|intros; reflexivity].
Ltac vt1 V :=
  match goal with
  | |- context [valid_t ?w ?t] => destruct (valid_t w t) eqn:V; [apply valid_t_lt in V|same]
  end.
Ltac vt2 V1 V2 :=
  match goal with
  | |- context [valid_t ?w ?t && valid_t ?w ?u] =>
      destruct (valid_t w t) eqn:V1; [apply valid_t_lt in V1|same];
      destruct (valid_t w u) eqn:V2; [apply valid_t_lt in V2|same]; cbn [andb]
  end.
Ltac at_table W V l T := pre; vt1 V; destruct (WF_tinv _ _ W V) as (l & T).

Lemma refines_pair : forall (P Q c : Prop), P /\ Q -> P /\ (c -> Q).
Proof. tauto. Qed.

(* PutIfNotAlreadyPresent / GetOrPut: answer from the entry found, else Put *)
Lemma refines_put_absent : forall w t k v (o1 : option Z -> out) (o2 : out), WF w -> t < length (tabs w) ->
  let h := gett w t in
  let x := abs_tab h in
  let r1 := match find_key h k with
            | Some e => (w, o1 (val_of h e))
            | None => let '(h', J, _, _) := put_aux var dcap h (its w) k v in (put_ti w t h' J, o2)
            end in
  let r0 := match a_get (pairs x) k with
            | Some old => (abs_world w, o1 (Some old))
            | None => (sett0 (abs_world w) t (fst (l0_put var dcap x k v)), o2)
            end in
  abs_world (fst r1) = fst r0 /\ snd r1 = snd r0.
Proof.
  intros w t k v o1 o2 W Ht h x. destruct (WF_tinv w t W Ht) as (l & T). fold h in T.
  cbv zeta. unfold x. cbn [pairs abs_tab]. rewrite (find_key_get h l k T).
  destruct (find_key h k) as [e|] eqn:Ef.
  - destruct (find_key_some_in h l k e T Ef) as [He _]. rewrite (val_of_valf h e (tinv_live _ _ T e He)). split; reflexivity.
  - rewrite (put_aux_split var dcap h). destruct (abs_tab_put_aux var dcap h (its w) l k v T) as [A _].
    cbn [fst snd]. rewrite abs_world_put, A. split; reflexivity.
Qed.

Lemma refines_put_family : forall w o, WF w ->
  match o with
  | OPut _ _ _ | OPutIfAbsent _ _ _ | OGetOrPut _ _ _ | OPutAtFront _ _ _ | OPutAtBack _ _ _
  | OPutBefore _ _ _ _ | OPutBehind _ _ _ _ | OPutAtPos _ _ _ _ => refines_step w o
  | _ => True
  end.
Proof.
  intros w o W. destruct o; try exact I.
  - (* Put *) at_table W V1 l T.
    rewrite (put_aux_split var dcap (gett w t)). rewrite (surjective_pairing (l0_put var dcap (abs_tab (gett w t)) k v)).
    destruct (abs_tab_put_aux var dcap (gett w t) (its w) l k v T) as [A B]. cbn [fst snd].
    rewrite abs_world_put, A, B. same.
  - (* PutIfAbsent *) pre. vt1 V1. exact (refines_pair _ _ _ (refines_put_absent w t k v (fun _ => OBool false) (OBool true) W V1)).
  - (* GetOrPut *) pre. vt1 V1. exact (refines_pair _ _ _ (refines_put_absent w t k v OVal (OVal (Some v)) W V1)).
  - (* PutAtFront *) at_table W V1 l T.
    rewrite (put_aux_split var dcap (gett w t)). rewrite (surjective_pairing (move_front_aux _ _ _)). cbn [fst snd].
    rewrite abs_world_put, (abs_tab_put_move var dcap k _ _ _ _ l v (mv_front_spec k) T). split; reflexivity.
  - (* PutAtBack *) at_table W V1 l T.
    rewrite (put_aux_split var dcap (gett w t)). rewrite (surjective_pairing (move_back_aux _ _ _)). cbn [fst snd].
    rewrite abs_world_put, (abs_tab_put_move var dcap k _ _ _ _ l v (mv_back_spec k) T). split; reflexivity.
  - (* PutBefore *) at_table W V1 l T.
    rewrite (put_aux_split var dcap (gett w t)).
    pose proof (abs_tab_put_move var dcap k _ _ _ (its w) l v (mv_rel_spec _ _ k k2 before_refines (fun A => l0_move_before_absent A k k2)) T) as M.
    cbv zeta in M. unfold mv_rel in M. set (r := put_aux var dcap (gett w t) (its w) k v) in *.
    destruct (find_key (pa_h r) k2) as [f|]; [destruct (Pos.eqb (pa_e r) f)|]; try destruct (move_before_aux _ _ _ f);
      cbn [fst snd] in *; rewrite abs_world_put, M; split; reflexivity.
  - (* PutBehind *) at_table W V1 l T.
    rewrite (put_aux_split var dcap (gett w t)).
    pose proof (abs_tab_put_move var dcap k _ _ _ (its w) l v (mv_rel_spec _ _ k k2 behind_refines (fun A => l0_move_behind_absent A k k2)) T) as M.
    cbv zeta in M. unfold mv_rel in M. set (r := put_aux var dcap (gett w t) (its w) k v) in *.
    destruct (find_key (pa_h r) k2) as [f|]; [destruct (Pos.eqb (pa_e r) f)|]; try destruct (move_behind_aux _ _ _ f);
      cbn [fst snd] in *; rewrite abs_world_put, M; split; reflexivity.
  - (* PutAtPos *) at_table W V1 l T.
    rewrite (put_aux_split var dcap (gett w t)). rewrite (surjective_pairing (move_pos_aux _ _ _ _)). cbn [fst snd].
    rewrite abs_world_put, (abs_tab_put_move var dcap k _ _ _ _ l v (mv_pos_spec k idx) T). split; reflexivity.
Qed.

Lemma refines_queries : forall w o, WF w ->
  match o with
  | OGet _ _ | OContains _ _ | OIndexOfKey _ _ | OKeyAt _ _ | OValAt _ _ | OFirstKey _ | OLastKey _
  | OKeyBefore _ _ | OKeyAfter _ _ | OIndexOfValue _ _ _ | ONumItems _ | OEqual _ _ _ => refines_step w o
  | _ => True
  end.
Proof.
  intros w o W.
  assert (TV : forall t, exists l, tinv (gett w t) l).
  { intros t. destruct (Nat.lt_ge_cases t (length (tabs w))) as [Ht|Ht]; [apply (WF_tinv w t W Ht)|].
    exists []. unfold gett. rewrite nth_overflow by exact Ht. apply tinv_empty. }
  (* a query leaves both worlds alone; what is left to compare is the value it returns *)
  destruct o; try exact I; pre; cbn [pairs abs_tab]; try vt2 V1 V2; destruct (TV t) as (l & T);
    (split; [reflexivity|intros _]); cbn [snd]; f_equal.
  - (* Get *) symmetry. apply (find_key_get _ l k T).
  - (* Contains *) apply (q_contains _ l T).
  - (* IndexOfKey *) apply (q_index_of_key _ l T).
  - (* KeyAt *) apply (q_key_at _ l T).
  - (* ValAt *) apply (q_val_at _ l T).
  - (* FirstKey *) apply (q_first_key _ l T).
  - (* LastKey *) apply (q_last_key _ l T).
  - (* KeyBefore *) apply (q_key_before _ l T).
  - (* KeyAfter *) apply (q_key_after _ l T).
  - (* IndexOfValue *) apply (q_index_of_value _ l v bw T).
  - (* NumItems *) symmetry. apply (abs_length _ l T).
  - (* Equal *) destruct (t =? u); [reflexivity|]. destruct (TV u) as (lb & Tb). apply (abs_equal_tabs _ _ l lb ordered T Tb).
Qed.

Lemma refines_removals : forall w o, WF w ->
  match o with
  | ORemove _ _ | ORemoveFirst _ | ORemoveLast _ => refines_step w o
  | _ => True
  end.
Proof.
  intros w o W. destruct o; try exact I.
  - (* Remove *) at_table W V1 l T. cbn [pairs abs_tab].
    rewrite (find_key_get (gett w t) l k T).
    destruct (find_key (gett w t) k) as [e|] eqn:Ef; [|same].
    destruct (find_key_some_in _ l k e T Ef) as [He Hk]. rewrite (val_of_valf _ e (tinv_live _ _ T e He)).
    rewrite (surjective_pairing (remove_entry _ _ e)). cbn [fst snd].
    rewrite abs_world_put, (abs_tab_remove_entry _ _ l e T He), Hk. split; reflexivity.
  - (* RemoveFirst *) at_table W V1 l T. cbn [pairs abs_tab].
    rewrite (lk_hd _ _ (ti_linked _ _ T)), (tinv_abs _ l T).
    destruct l as [|e l2]; [same|]. cbn [head_opt map].
    rewrite (kv_of_live _ e (tinv_live _ _ T e (or_introl eq_refl))).
    rewrite (surjective_pairing (remove_entry _ _ e)). cbn [fst snd].
    rewrite abs_world_put, (abs_tab_remove_entry _ _ _ e T (or_introl eq_refl)), (tinv_abs _ _ T). cbn [map].
    rewrite a_remove_cons_eq. split; reflexivity.
  - (* RemoveLast *) at_table W V1 l T. cbn [pairs abs_tab].
    rewrite (lk_tl _ _ (ti_linked _ _ T)), (tinv_abs _ l T), last_opt_map. fold (last_of l).
    destruct (last_of l) as [e|] eqn:EL; [|same].
    destruct (last_of_split _ _ _ EL) as (l1 & ->). cbn [option_map].
    rewrite (kv_of_live _ e (tinv_live _ _ T e (in_elt e l1 []))).
    rewrite (surjective_pairing (remove_entry _ _ e)). cbn [fst snd].
    rewrite abs_world_put, (abs_tab_remove_entry _ _ _ e T (in_elt e l1 [])), (tinv_abs _ _ T).
    rewrite (a_remove_map_split (gett w t) l1 e [] (keys_split_left _ l1 e [] (ti_keys _ _ T))).
    rewrite app_nil_r, map_app. cbn [map]. rewrite removelast_last. split; reflexivity.
Qed.

(* the operations "find the entry of key k, move it": MoveToFront/Back/Position, GetAndMoveToFront/Back,
   Reposition; [o1] makes the result from the value found *)
Lemma refines_found : forall w t k mv f0 (o1 : option Z -> out) (o2 : out),
  WF w -> t < length (tabs w) -> move_refines k mv f0 ->
  let h := gett w t in
  let x := abs_tab h in
  let r1 := match find_key h k with
            | Some e => let '(h1, I1) := mv h (its w) e in (put_ti w t h1 I1, o1 (val_of h e))
            | None => (w, o2)
            end in
  let r0 := match a_get (pairs x) k with
            | Some v => (sett0 (abs_world w) t (with_pairs x (f0 (pairs x))), o1 (Some v))
            | None => (abs_world w, o2)
            end in
  abs_world (fst r1) = fst r0 /\ snd r1 = snd r0.
Proof.
  intros w t k mv f0 o1 o2 W Ht Hmv h x. destruct (WF_tinv w t W Ht) as (l & T). fold h in T.
  cbv zeta. unfold x. cbn [pairs abs_tab]. rewrite (find_key_get h l k T).
  destruct (find_key h k) as [e|] eqn:Ef; [|split; reflexivity].
  destruct (find_key_some_in h l k e T Ef) as [He Hk]. rewrite (val_of_valf h e (tinv_live _ _ T e He)).
  pose proof (abs_tab_move k mv f0 h (its w) l e Hmv T He Hk) as M.
  destruct (mv h (its w) e) as [h1 I1]. cbn [fst snd] in *. rewrite abs_world_put, M. split; reflexivity.
Qed.

Lemma refines_found2 : forall w t k k2 aux f0, WF w -> t < length (tabs w) -> move2_refines aux f0 ->
  let h := gett w t in
  let x := abs_tab h in
  let r1 := match find_key h k, find_key h k2 with
            | Some e, Some f => if Pos.eqb e f then (w, OStatus 2)
                                else let '(h1, I1) := aux h (its w) e f in (put_ti w t h1 I1, OStatus 0)
            | _, _ => (w, OStatus 1)
            end in
  let r0 := match a_get (pairs x) k, a_get (pairs x) k2 with
            | Some _, Some _ => if Z.eqb k k2 then (abs_world w, OStatus 2)
                                else (sett0 (abs_world w) t (with_pairs x (f0 (pairs x) k k2)), OStatus 0)
            | _, _ => (abs_world w, OStatus 1)
            end in
  abs_world (fst r1) = fst r0 /\ snd r1 = snd r0.
Proof.
  intros w t k k2 aux f0 W Ht Haux h x. destruct (WF_tinv w t W Ht) as (l & T). fold h in T.
  cbv zeta. unfold x. cbn [pairs abs_tab]. rewrite (find_key_get h l k T), (find_key_get h l k2 T).
  destruct (find_key h k) as [e|] eqn:Ef; [|split; reflexivity].
  destruct (find_key_some_in h l k e T Ef) as [He Hk]. rewrite (val_of_valf h e (tinv_live _ _ T e He)).
  destruct (find_key h k2) as [f|] eqn:Ef2; [|split; reflexivity].
  destruct (find_key_some_in h l k2 f T Ef2) as [Hf Hkf]. rewrite (val_of_valf h f (tinv_live _ _ T f Hf)).
  rewrite (eqb_entry_key h l e f T He Hf), Hk, Hkf. destruct (Z.eqb k k2) eqn:E; [split; reflexivity|].
  destruct (in_split _ _ He) as (l1 & l2 & ->).
  destruct (Haux h (its w) l1 l2 e f T Hf) as (l' & Mv & El'); [intros ->; rewrite Hk in Hkf; subst k2; rewrite Z.eqb_refl in E; discriminate|].
  destruct (abs_moved _ _ _ _ _ _ T Mv) as (_ & Ab & Cp & As & _).
  destruct (aux h (its w) e f) as [h1 I1]. cbn [fst snd] in *. rewrite abs_world_put. split; [|reflexivity]. f_equal.
  unfold abs_tab, with_pairs. cbn [pairs acap aasort]. rewrite Ab, Cp, As, El', (tinv_abs _ _ T), Hk, Hkf. reflexivity.
Qed.

Lemma refines_moves : forall w o, WF w ->
  match o with
  | OMoveFront _ _ | OMoveBack _ _ | OMoveBefore _ _ _ | OMoveBehind _ _ _ | OMovePos _ _ _
  | OGetMoveFront _ _ | OGetMoveBack _ _ | OReposition _ _ => refines_step w o
  | _ => True
  end.
Proof.
  intros w o W. destruct o; try exact I; pre; vt1 V1.
  - (* MoveFront *) exact (refines_pair _ _ _ (refines_found w t k _ _ (fun _ => OStatus 0) (OStatus 1) W V1 (mv_front_spec k))).
  - (* MoveBack *) exact (refines_pair _ _ _ (refines_found w t k _ _ (fun _ => OStatus 0) (OStatus 1) W V1 (mv_back_spec k))).
  - (* MoveBefore *) exact (refines_pair _ _ _ (refines_found2 w t k k2 _ _ W V1 before_refines)).
  - (* MoveBehind *) exact (refines_pair _ _ _ (refines_found2 w t k k2 _ _ W V1 behind_refines)).
  - (* MovePos *) exact (refines_pair _ _ _ (refines_found w t k _ _ (fun _ => OStatus 0) (OStatus 1) W V1 (mv_pos_spec k idx))).
  - (* GetMoveFront *) exact (refines_pair _ _ _ (refines_found w t k _ _ OVal (OVal None) W V1 (mv_front_spec k))).
  - (* GetMoveBack *) exact (refines_pair _ _ _ (refines_found w t k _ _ OVal (OVal None) W V1 (mv_back_spec k))).
  - (* Reposition *) exact (refines_pair _ _ _ (refines_found w t k _ _ (fun _ => OStatus 0) (OStatus 1) W V1 (mv_repos_spec var k))).
Qed.

Lemma abs_tab_with_asort : forall h b, abs_tab (with_asort h b) = mkT0 (abs h) (cap h) b.
Proof. intros. apply abs_tab_mk. Qed.

Lemma setauto_tab : forall v h l en (sortnow : bool), tinv h l ->
  abs_tab (if sortnow && en then sort_aux v (with_asort h en) else with_asort h en)
  = mkT0 (if sortnow && en then l0_sort_aux v (abs h) else abs h) (cap h) en.
Proof.
  intros v h l en sortnow T.
  assert (Ta : tinv (with_asort h en) l) by (apply (tinv_same_nodes h _ l T); reflexivity).
  destruct (sortnow && en); [|apply abs_tab_with_asort].
  rewrite (proj1 (abs_tab_sort_aux v _ l Ta)), abs_tab_with_asort, (abs_congr h (with_asort h en)) by reflexivity. reflexivity.
Qed.

Lemma refines_ensure : forall w t l n sh, tinv (gett w t) l ->
  let r1 := let '(h, J, st) := ensure_size dcap (gett w t) (its w) n sh in (put_ti w t h J, OStatus st) in
  let r0 := let '(x, st) := l0_ensure dcap (abs_tab (gett w t)) n sh in (sett0 (abs_world w) t x, OStatus st) in
  abs_world (fst r1) = fst r0 /\ snd r1 = snd r0.
Proof.
  intros w t l n sh T. destruct (abs_tab_ensure dcap (gett w t) (its w) l n sh T) as [A B].
  rewrite (surjective_pairing (l0_ensure _ _ n sh)). destruct (ensure_size _ _ _ n sh) as [[h1 I1] st]. cbn [fst snd] in *.
  rewrite abs_world_put, A, B. split; reflexivity.
Qed.

Lemma refines_sorts_sizes : forall w o, WF w ->
  match o with
  | OSortKey _ | OSortVal _ | OSort _ | OSetAutoSort _ _ _ | OEnsure _ _ _ | OShrinkFit _ _ | OEnsureCanPut _ _
  | OClear _ _ | ODestroy _ | OPrealloc _ _ => refines_step w o
  | _ => True
  end.
Proof.
  intros w o W. destruct o; try exact I.
  - (* SortKey *) at_table W V1 l T. cbn [fst snd pairs abs_tab].
    rewrite abs_world_sett, (proj1 (abs_tab_sort_by (gett w t) l cmp_key T)). same.
  - (* SortVal *) at_table W V1 l T. cbn [fst snd pairs abs_tab].
    rewrite abs_world_sett, (proj1 (abs_tab_sort_by (gett w t) l cmp_val T)). same.
  - (* Sort *) at_table W V1 l T. cbn [fst snd pairs abs_tab].
    rewrite abs_world_sett, (proj1 (abs_tab_sort_aux var (gett w t) l T)). same.
  - (* SetAutoSort *) at_table W V1 l T. cbn [pairs acap aasort abs_tab].
    destruct var; [same| |];
      (destruct (Bool.eqb en (asort (gett w t))); [same|]; cbn [fst snd];
       rewrite abs_world_sett, (setauto_tab _ _ l en sortnow T); same).
  - (* Ensure *) at_table W V1 l T. exact (refines_pair _ _ _ (refines_ensure w t l n shrink T)).
  - (* ShrinkFit *) at_table W V1 l T. cbn [pairs abs_tab]. rewrite (abs_length _ l T). destruct (N.ltb _ _); [same|].
    exact (refines_pair _ _ _ (refines_ensure w t l _ true T)).
  - (* EnsureCanPut *) at_table W V1 l T. cbn [pairs abs_tab]. rewrite (abs_length _ l T). destruct (N.ltb _ _); [same|].
    exact (refines_pair _ _ _ (refines_ensure w t l _ false T)).
  - (* Clear *) pre. vt1 V1. pose proof (abs_tab_clear dcap (gett w t) (its w) release) as A.
    destruct (clear_tab dcap (gett w t) (its w) release) as [h1 I1]. cbn [fst snd] in *.
    rewrite abs_world_put, A. same.
  - (* Destroy *) pre. vt1 V1.
    destruct (clear_tab dcap (gett w t) (its w) true) as [h1 I1]. cbn [fst snd].
    rewrite abs_world_put. same.
  - (* Prealloc *) pre. vt1 V1.
    destruct (clear_tab dcap (gett w t) (its w) true) as [hold J0].
    set (h0 := mkHt (PositiveMap.empty node) None None 0 0 (fresh hold) true []).
    destruct (abs_tab_ensure dcap h0 J0 [] n false (tinv_empty _ _ _ _)) as [A _].
    destruct (ensure_size dcap h0 J0 n false) as [[h1 I1] st]. cbn [fst snd] in *.
    rewrite abs_world_put, A. same.
Qed.

Lemma abs_world_put2 : forall w t u ht1 hu I, abs_world (mkW (upd_nth (upd_nth (tabs w) u hu) t ht1) I)
  = sett0 (sett0 (abs_world w) u (abs_tab hu)) t (abs_tab ht1).
Proof. intros. unfold abs_world, sett0. cbn [tabs]. rewrite !map_upd_nth. reflexivity. Qed.

Lemma gett0_sett0_other : forall w0 t u x, t <> u -> gett0 (sett0 w0 u x) t = gett0 w0 t.
Proof. intros. unfold gett0, sett0. apply nth_upd_nth_other. congruence. Qed.

Lemma refines_two_tables : forall w o, WF w ->
  match o with
  | OCopyFrom _ _ _ | OCopyCtor _ _ | OSwap _ _ | OMoveToTable _ _ _ | OCopyToTable _ _ _
  | ORemoveTable _ _ | OIntersect _ _ | OMoveCtor _ _ => refines_step w o
  | _ => True
  end.
Proof.
  intros w o W. destruct o; try exact I.
  - (* CopyFrom *) pre. vt2 V1 V2. destruct (t =? u); [same|].
    destruct (WF_tinv w t W V1) as (l & T). destruct (WF_tinv w u W V2) as (lu & Tu). cbn [pairs abs_tab].
    destruct (abs_tab_copy_from var dcap (gett w t) (its w) l (abs (gett w u)) (cap (gett w u)) clearfirst T (abs_nodup_keys _ lu Tu)) as [A B].
    rewrite (surjective_pairing (l0_copy_from var dcap (abs_tab (gett w t)) (abs (gett w u)) clearfirst)).
    destruct (copy_from var dcap (gett w t) (its w) (abs (gett w u)) (cap (gett w u)) clearfirst) as [[h1 I1] st]. cbn [fst snd] in *.
    rewrite abs_world_put, A, B. same.
  - (* CopyCtor *) pre. vt2 V1 V2. destruct (t =? u); [same|].
    destruct (WF_tinv w u W V2) as (lu & Tu). cbn [pairs acap abs_tab].
    destruct (clear_tab dcap (gett w t) (its w) true) as [hold J0].
    set (hnew := mkHt (PositiveMap.empty node) None None 0 (cap (gett w u)) (fresh hold) true []).
    destruct (abs_tab_copy_from var dcap hnew J0 [] (abs (gett w u)) (cap (gett w u)) true (tinv_empty _ _ _ _) (abs_nodup_keys _ lu Tu)) as [A _].
    rewrite (surjective_pairing (l0_copy_from var dcap (mkT0 [] (cap (gett w u)) true) (abs (gett w u)) true)).
    destruct (copy_from var dcap hnew J0 (abs (gett w u)) (cap (gett w u)) true) as [[h1 I1] st]. cbn [fst snd] in *.
    rewrite abs_world_put, A. same.
  - (* Swap *) pre. vt2 V1 V2. destruct (t =? u) eqn:E; [same|]. cbn [fst snd pairs acap aasort abs_tab].
    rewrite abs_world_put2, !abs_tab_mk. same.
  - (* MoveToTable *) pre. vt2 V1 V2. destruct (WF_tinv w t W V1) as (l & T). destruct (WF_tinv w u W V2) as (lu & Tu). cbn [pairs abs_tab].
    rewrite (find_key_get (gett w t) l k T).
    destruct (find_key (gett w t) k) as [e|] eqn:Ef; [|same].
    destruct (find_key_split _ l k e T Ef) as (l1 & l2 & -> & Hk).
    assert (Le : live (gett w t) e) by (apply (tinv_live _ _ T); apply in_elt).
    rewrite (val_of_valf _ e Le).
    destruct (t =? u) eqn:E; [same|]. apply Nat.eqb_neq in E.
    rewrite (put_aux_split var dcap (gett w u)).
    destruct (abs_tab_put_aux var dcap (gett w u) (its w) lu k (valf (gett w t) e) Tu) as [A _].
    set (hu := pa_h _) in *. set (I1 := pa_i _) in *.
    rewrite (surjective_pairing (remove_entry _ I1 e)). cbn [fst snd].
    rewrite abs_world_put2, A, (abs_tab_remove_entry _ I1 _ e T (in_elt e l1 l2)), Hk. split; reflexivity.
  - (* CopyToTable *) pre. vt2 V1 V2. destruct (WF_tinv w t W V1) as (l & T). destruct (WF_tinv w u W V2) as (lu & Tu). cbn [pairs abs_tab].
    rewrite (find_key_get (gett w t) l k T).
    destruct (find_key (gett w t) k) as [e|] eqn:Ef; [|same].
    destruct (find_key_some_in _ l k e T Ef) as [He Hk]. rewrite (val_of_valf _ e (tinv_live _ _ T e He)).
    destruct (t =? u); [same|].
    rewrite (put_aux_split var dcap (gett w u)).
    destruct (abs_tab_put_aux var dcap (gett w u) (its w) lu k (valf (gett w t) e) Tu) as [A _]. cbn [fst snd].
    rewrite abs_world_put, A. same.
  - (* RemoveTable *) pre. vt2 V1 V2. destruct (WF_tinv w t W V1) as (l & T). destruct (WF_tinv w u W V2) as (lu & Tu). cbn [pairs abs_tab].
    pose proof (abs_length _ l T) as El.
    destruct (t =? u).
    + pose proof (abs_tab_clear dcap (gett w t) (its w) false) as A.
      destruct (clear_tab dcap (gett w t) (its w) false) as [h1 I1]. cbn [fst snd] in *.
      rewrite abs_world_put, A, El. same.
    + destruct (abs_tab_remove_keys (abs (gett w u)) (gett w t) (its w) l T) as [A C].
      destruct (remove_keys (gett w t) (its w) (map fst (abs (gett w u)))) as [[h1 I1] c]. cbn [fst snd] in *.
      rewrite abs_world_put, A, C. same.
  - (* Intersect *) pre. vt2 V1 V2. destruct (t =? u); [same|].
    destruct (WF_tinv w t W V1) as (l & T). cbn [pairs abs_tab].
    destruct (abs_tab_intersect_ids (abs (gett w u)) (gett w t) (its w) l T) as [A C].
    destruct (intersect_ids (gett w t) (its w) (abs (gett w u)) _) as [[h1 I1] c]. cbn [fst snd] in *.
    rewrite abs_world_put, A, C. same.
  - (* MoveCtor *) pre. vt2 V1 V2. destruct (t =? u) eqn:E; [same|]. cbn [pairs acap aasort abs_tab].
    destruct (clear_tab dcap (gett w t) (its w) true) as [hold J0]. cbn [fst snd].
    rewrite abs_world_put2, abs_tab_mk. same.
Qed.

Lemma abs_world_unregister : forall w i, abs_world (unregister w i) = abs_world w.
Proof.
  intros w i. unfold unregister. destruct (geti (its w) i) as [it|]; [|reflexivity].
  destruct (inoreg it); [reflexivity|]. destruct (iown it) as [t|]; [|reflexivity].
  rewrite abs_world_sett, abs_tab_with_ilist. apply sett0_same.
Qed.

Lemma abs_world_register : forall w i t c bw nr scr, abs_world (register w i t c bw nr scr) = abs_world w.
Proof.
  intros. unfold register. destruct nr; [reflexivity|]. destruct c; [|reflexivity].
  rewrite abs_world_sett, abs_tab_with_ilist. rewrite gett_seti_w. rewrite abs_world_seti. apply sett0_same.
Qed.

Lemma refines_iters : forall w o, is_iter_op o = true -> refines_step w o.
Proof.
  intros w o Hi. unfold refines_step. rewrite Hi. split; [|discriminate].
  destruct o; try discriminate Hi; cbn [step1 step0 fst].
  - (* IterNew *) destruct (valid_i w i && valid_t w t); [|reflexivity]. cbn [fst]. rewrite abs_world_register. apply abs_world_unregister.
  - (* IterAt *) destruct (valid_i w i && valid_t w t); [|reflexivity]. cbn [fst]. rewrite abs_world_register. apply abs_world_unregister.
  - (* IterAdv *) destruct (geti (its w) i); reflexivity.
  - (* IterRet *) destruct (geti (its w) i); reflexivity.
  - (* IterSetBw *) destruct (geti (its w) i); reflexivity.
  - (* IterDel *) destruct (valid_i w i); [|reflexivity]. cbn [fst]. rewrite abs_world_seti. apply abs_world_unregister.
  - (* IterCopy *) destruct (valid_i w i && negb (i =? j)); [|reflexivity]. destruct (geti (its w) j) as [src|]; [|reflexivity]. cbn [fst].
    destruct (iown src); [rewrite abs_world_register|rewrite abs_world_seti]; apply abs_world_unregister.
  - (* IterShow *) reflexivity.
Qed.

Theorem step_refines : forall w o, WF w -> refines_step w o.
Proof.
  intros w o W.
  pose proof (refines_put_family w o W) as R1. pose proof (refines_queries w o W) as R2.
  pose proof (refines_removals w o W) as R3. pose proof (refines_moves w o W) as R4.
  pose proof (refines_sorts_sizes w o W) as R5. pose proof (refines_two_tables w o W) as R6.
  destruct o; try assumption; apply refines_iters; reflexivity.
Qed.

Fixpoint run0 (w0 : world0) (ops : list op) : world0 :=
  match ops with [] => w0 | o :: r => run0 (fst (step0 var dcap w0 o)) r end.

Fixpoint outs1 (w : world) (ops : list op) : list out :=
  match ops with [] => [] | o :: r => snd (step1 var dcap w o) :: outs1 (fst (step1 var dcap w o)) r end.
Fixpoint outs0 (w0 : world0) (ops : list op) : list out :=
  match ops with [] => [] | o :: r => snd (step0 var dcap w0 o) :: outs0 (fst (step0 var dcap w0 o)) r end.

Theorem run_refines : forall ops w, WF w ->
  abs_world (run1 var dcap w ops) = run0 (abs_world w) ops /\
  (Forall (fun o => is_iter_op o = false) ops -> outs1 w ops = outs0 (abs_world w) ops).
Proof.
  induction ops as [|o r IH]; intros w W; [split; reflexivity|].
  destruct (step_refines w o W) as [A B].
  destruct (IH (fst (step1 var dcap w o)) (step1_WF var dcap w o W)) as [A2 B2].
  change (run1 var dcap w (o :: r)) with (run1 var dcap (fst (step1 var dcap w o)) r). cbn [run0 outs1 outs0]. rewrite <- A. split; [exact A2|].
  intros F. inversion F; subst. rewrite (B H1). f_equal. apply B2. assumption.
Qed.

Theorem init_refines : forall nt ni ops,
  abs_world (run1 var dcap (init_world dcap nt ni) ops) = run0 (abs_world (init_world dcap nt ni)) ops /\
  (Forall (fun o => is_iter_op o = false) ops ->
   outs1 (init_world dcap nt ni) ops = outs0 (abs_world (init_world dcap nt ni)) ops).
Proof. intros. apply run_refines. apply WF_init. Qed.

End Ref.
