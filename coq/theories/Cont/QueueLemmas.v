(* C16 -- basic lemmas used by the Queue refinement proofs: list indexing, ring-index
   arithmetic (InternalizeIndex / NextIndex / PrevIndex), getu/setu, the abstraction [abs]. *)
From Coq Require Import List Arith ZArith Bool Lia ZifyBool.
From Muscle Require Import Cont.QueueModel.
Import ListNotations.
Local Open Scope nat_scope.

(* one case split per [if]; the boolean facts stay as equations that [lia] (ZifyBool) reads *)
Ltac dif :=
  repeat match goal with
  | |- context [if ?c then _ else _] =>
      let E := fresh "E" in destruct c eqn:E; try rewrite E in *
  end.

(* the same, also splitting on the [if]s of the hypotheses *)
Ltac difh :=
  repeat match goal with
  | |- context [if ?c then _ else _] =>
      let E := fresh "E" in destruct c eqn:E; try rewrite E in *
  | H : context [if ?c then _ else _] |- _ =>
      let E := fresh "E" in destruct c eqn:E; try rewrite E in *
  end.

Ltac fin := try reflexivity; try lia; try congruence; try (f_equal; lia).

Section Lists.
Context {A : Type}.
Implicit Types (l : list A) (d : A).

Lemma nth_firstn' l n i d : nth i (firstn n l) d = if i <? n then nth i l d else d.
Proof.
  revert n i. induction l as [|x l IH]; intros n i.
  - rewrite firstn_nil. destruct i; dif; reflexivity.
  - destruct n as [|n]; [destruct i; reflexivity|].
    destruct i as [|i]; [reflexivity|]. cbn [firstn nth]. rewrite IH.
    change (S i <? S n) with (i <? n). reflexivity.
Qed.

Lemma nth_skipn' l n i d : nth i (skipn n l) d = nth (n + i) l d.
Proof.
  revert l. induction n as [|n IH]; intros l; [reflexivity|].
  destruct l as [|x l]; [destruct i; reflexivity|]. cbn [skipn Nat.add nth]. apply IH.
Qed.

Lemma nth_app' l l' i d :
  nth i (l ++ l') d = if i <? length l then nth i l d else nth (i - length l) l' d.
Proof.
  destruct (i <? length l) eqn:E.
  - apply app_nth1. lia.
  - apply app_nth2. lia.
Qed.

Lemma nth_repeat' (a : A) n i d : nth i (repeat a n) d = if i <? n then a else d.
Proof.
  revert i. induction n as [|n IH]; intros i; [destruct i; reflexivity|].
  destruct i as [|i]; [reflexivity|]. cbn [repeat nth]. rewrite IH.
  change (S i <? S n) with (i <? n). reflexivity.
Qed.

Lemma nth_rev' l i d :
  nth i (rev l) d = if i <? length l then nth (length l - S i) l d else d.
Proof.
  destruct (i <? length l) eqn:E.
  - apply rev_nth. lia.
  - apply nth_overflow. rewrite rev_length. lia.
Qed.

Lemma nth_cons' (x : A) l i d : nth i (x :: l) d = if i =? 0 then x else nth (i - 1) l d.
Proof. destruct i as [|i]; [reflexivity|]. cbn [nth Nat.eqb]. f_equal. lia. Qed.

Lemma list_ext l l' d :
  length l = length l' -> (forall i, i < length l -> nth i l d = nth i l' d) -> l = l'.
Proof. intros. eapply nth_ext; eauto. Qed.

Lemma skipn_length' l n : length (skipn n l) = length l - n.
Proof. apply skipn_length. Qed.

Lemma firstn_length' l n : length (firstn n l) = Nat.min n (length l).
Proof. apply firstn_length. Qed.

End Lists.

Lemma skipn_skipn' {A} (a b : nat) (l : list A) : skipn a (skipn b l) = skipn (b + a) l.
Proof.
  revert l. induction b as [|b IH]; intros l; [reflexivity|].
  destruct l as [|x l]; [rewrite !skipn_nil; reflexivity|]. cbn [skipn Nat.add]. apply IH.
Qed.

Lemma upd_length a i v : length (upd a i v) = length a.
Proof.
  unfold upd. destruct (i <? length a) eqn:E; [|reflexivity].
  rewrite app_length. cbn [length]. rewrite firstn_length, skipn_length. lia.
Qed.

Lemma nth_upd a i v j d :
  nth j (upd a i v) d = if (j =? i) && (i <? length a) then v else nth j a d.
Proof.
  unfold upd. destruct (i <? length a) eqn:E.
  - rewrite nth_app', firstn_length', nth_firstn', nth_cons', nth_skipn'.
    replace (Nat.min i (length a)) with i by lia.
    dif; fin.
  - rewrite andb_false_r. reflexivity.
Qed.

Lemma upd_oob a i v : length a <= i -> upd a i v = a.
Proof. intros H. unfold upd. destruct (i <? length a) eqn:E; [lia|reflexivity]. Qed.

Lemma upd_app_mid A y B x : upd (A ++ y :: B) (length A) x = A ++ x :: B.
Proof.
  unfold upd. rewrite app_length. cbn [length]. replace (length A <? length A + S (length B)) with true by lia.
  rewrite firstn_app, firstn_all, Nat.sub_diag. cbn [firstn]. rewrite app_nil_r.
  rewrite skipn_app, skipn_all2 by lia. replace (S (length A) - length A) with 1 by lia. reflexivity.
Qed.

#[export] Hint Rewrite @nth_firstn' @nth_skipn' @nth_app' @nth_repeat' @nth_rev' @nth_cons' nth_upd
  @firstn_length' @skipn_length' @app_length @rev_length @repeat_length upd_length @map_length @seq_length : nthdb.

Lemma qsize_mk s a c h t i : qsize (mkQ s a c h t i) = length a.
Proof. reflexivity. Qed.

Lemma intern_congr q q' i : head q' = head q -> qsize q' = qsize q -> intern q' i = intern q i.
Proof. intros H1 H2. unfold intern. rewrite H1, H2. reflexivity. Qed.

Lemma intern_lt q i : head q < qsize q -> i <= qsize q -> intern q i < qsize q.
Proof. intros. unfold intern. cbv zeta. dif; lia. Qed.

Lemma intern_inj q i j :
  head q < qsize q -> i < qsize q -> j < qsize q -> intern q i = intern q j -> i = j.
Proof. unfold intern. cbv zeta. intros. difh; lia. Qed.

Lemma intern_0 q : head q < qsize q -> intern q 0 = head q.
Proof. unfold intern. cbv zeta. intros. difh; lia. Qed.

Lemma intern_head0 q i : head q = 0 -> i < qsize q -> intern q i = i.
Proof. intros H Hi. unfold intern. cbv zeta. rewrite H. dif; lia. Qed.

(* the user index below qsize that [intern] maps to slot s *)
Definition extern (q : q1) (s : nat) : nat := if head q <=? s then s - head q else s + qsize q - head q.

Lemma intern_extern q s : head q < qsize q -> s < qsize q ->
  extern q s < qsize q /\ intern q (extern q s) = s.
Proof. unfold intern, extern. cbv zeta. intros. difh; lia. Qed.

Lemma extern_intern q i : head q < qsize q -> i < qsize q -> extern q (intern q i) = i.
Proof. unfold intern, extern. cbv zeta. intros. difh; lia. Qed.

Lemma next_intern q i : head q < qsize q -> i < qsize q ->
  next_index q (intern q i) = intern q (if i + 1 =? qsize q then 0 else i + 1).
Proof. unfold intern, next_index. cbv zeta. intros. difh; lia. Qed.

Lemma next_intern' q i : head q < qsize q -> i + 1 < qsize q ->
  next_index q (intern q i) = intern q (i + 1).
Proof. intros Hh Hi. rewrite next_intern by lia. replace (i + 1 =? qsize q) with false by lia. reflexivity. Qed.

Lemma prev_intern q i : head q < qsize q -> 0 < i -> i <= qsize q ->
  prev_index q (intern q i) = intern q (i - 1).
Proof. unfold intern, prev_index. cbv zeta. intros. difh; lia. Qed.

Lemma prev_head q : head q < qsize q -> prev_index q (head q) = intern q (qsize q - 1).
Proof. unfold intern, prev_index. cbv zeta. intros. difh; lia. Qed.

Lemma intern_shift q q' a i : head q < qsize q -> qsize q' = qsize q -> head q' = intern q a ->
  a <= qsize q -> i <= qsize q ->
  intern q' i = intern q (if a + i <? qsize q then a + i else a + i - qsize q).
Proof. unfold intern. cbv zeta. intros Hh -> -> Ha Hi. difh; lia. Qed.

(* RemoveTailMulti's new tail index *)
Lemma intern_back q c n : head q < qsize q -> c <= qsize q -> n < c ->
  (if intern q (c - 1) <? n then intern q (c - 1) + qsize q else intern q (c - 1)) - n = intern q (c - n - 1).
Proof. unfold intern. cbv zeta. intros. difh; lia. Qed.

Lemma next_lt q i : 0 < qsize q -> next_index q i < qsize q.
Proof. unfold next_index. intros. difh; lia. Qed.

Lemma prev_lt q i : 0 < qsize q -> i < qsize q -> prev_index q i < qsize q.
Proof. unfold prev_index. intros. difh; lia. Qed.

Lemma mod_intern q n : head q < qsize q -> n <= qsize q -> (head q + n) mod qsize q = intern q n.
Proof.
  intros Hh Hn. unfold intern. cbv zeta. destruct (head q + n <? qsize q) eqn:E.
  - apply Nat.mod_small. lia.
  - symmetry. apply (Nat.mod_unique _ _ 1); lia.
Qed.

Lemma setu_set_raw q i v : setu q i v = set_raw q (intern q i) v.
Proof. reflexivity. Qed.

Section Proj.
Variables (q : q1) (i : nat) (v : Z).
Lemma st_setu : st (setu q i v) = st q. Proof. reflexivity. Qed.
Lemma cnt_setu : cnt (setu q i v) = cnt q. Proof. reflexivity. Qed.
Lemma head_setu : head (setu q i v) = head q. Proof. reflexivity. Qed.
Lemma tail_setu : tail (setu q i v) = tail q. Proof. reflexivity. Qed.
Lemma inl_setu : inl (setu q i v) = inl q. Proof. reflexivity. Qed.
Lemma qsize_setu : qsize (setu q i v) = qsize q. Proof. apply upd_length. Qed.
Lemma st_set_raw : st (set_raw q i v) = st q. Proof. reflexivity. Qed.
Lemma cnt_set_raw : cnt (set_raw q i v) = cnt q. Proof. reflexivity. Qed.
Lemma head_set_raw : head (set_raw q i v) = head q. Proof. reflexivity. Qed.
Lemma tail_set_raw : tail (set_raw q i v) = tail q. Proof. reflexivity. Qed.
Lemma inl_set_raw : inl (set_raw q i v) = inl q. Proof. reflexivity. Qed.
Lemma qsize_set_raw : qsize (set_raw q i v) = qsize q. Proof. apply upd_length. Qed.
Lemma intern_setu j : intern (setu q i v) j = intern q j.
Proof. apply intern_congr; [reflexivity|apply qsize_setu]. Qed.
Lemma intern_set_raw j : intern (set_raw q i v) j = intern q j.
Proof. apply intern_congr; [reflexivity|apply qsize_set_raw]. Qed.
Lemma next_setu j : next_index (setu q i v) j = next_index q j.
Proof. unfold next_index. rewrite qsize_setu. reflexivity. Qed.
Lemma prev_setu j : prev_index (setu q i v) j = prev_index q j.
Proof. unfold prev_index. rewrite qsize_setu. reflexivity. Qed.
Lemma next_set_raw j : next_index (set_raw q i v) j = next_index q j.
Proof. unfold next_index. rewrite qsize_set_raw. reflexivity. Qed.
Lemma prev_set_raw j : prev_index (set_raw q i v) j = prev_index q j.
Proof. unfold prev_index. rewrite qsize_set_raw. reflexivity. Qed.
End Proj.

#[export] Hint Rewrite inl_setu inl_set_raw st_setu cnt_setu head_setu tail_setu qsize_setu st_set_raw cnt_set_raw head_set_raw
  tail_set_raw qsize_set_raw intern_setu intern_set_raw next_setu prev_setu next_set_raw prev_set_raw : qdb.

Lemma getu_set_raw q s v j :
  getu (set_raw q s v) j = if (intern q j =? s) && (s <? qsize q) then v else getu q j.
Proof. unfold getu. rewrite intern_set_raw. cbn [arr set_raw]. rewrite nth_upd. reflexivity. Qed.

Lemma getu_setu q i v j : head q < qsize q -> i < qsize q -> j < qsize q ->
  getu (setu q i v) j = if j =? i then v else getu q j.
Proof.
  intros Hh Hi Hj. rewrite setu_set_raw, getu_set_raw.
  pose proof (intern_lt q i Hh ltac:(lia)) as Li.
  destruct (j =? i) eqn:E.
  - assert (j = i) by lia. subst j. dif; fin.
  - destruct (intern q j =? intern q i) eqn:E2; [|reflexivity].
    exfalso. assert (intern q j = intern q i) as E3 by lia. apply intern_inj in E3; lia.
Qed.

Lemma nth_arr_getu q s d : head q < qsize q -> s < qsize q -> nth s (arr q) d = getu q (extern q s).
Proof.
  intros Hh Hs. unfold getu. destruct (intern_extern q s Hh Hs) as [_ E]. rewrite E.
  apply nth_indep. exact Hs.
Qed.

Lemma getu_head0 q i : head q = 0 -> i < qsize q -> getu q i = nth i (arr q) dflt.
Proof. intros H Hi. unfold getu. rewrite intern_head0 by assumption. reflexivity. Qed.

Lemma abs_length q : length (abs q) = cnt q.
Proof. unfold abs. rewrite map_length, seq_length. reflexivity. Qed.

Lemma nth_abs q i d : i < cnt q -> nth i (abs q) d = getu q i.
Proof.
  intros H. unfold abs. rewrite (nth_indep _ d (getu q 0)) by (rewrite map_length, seq_length; exact H).
  rewrite map_nth, seq_nth by exact H. reflexivity.
Qed.

Lemma nth_abs' q i d : nth i (abs q) d = if i <? cnt q then getu q i else d.
Proof.
  destruct (i <? cnt q) eqn:E.
  - apply nth_abs. lia.
  - apply nth_overflow. rewrite abs_length. lia.
Qed.

Lemma abs_ext q l : cnt q = length l -> (forall i, i < length l -> getu q i = nth i l 0%Z) -> abs q = l.
Proof.
  intros Hc Hn. apply (list_ext _ _ 0%Z).
  - rewrite abs_length. exact Hc.
  - intros i Hi. rewrite abs_length in Hi. rewrite nth_abs by exact Hi. apply Hn. lia.
Qed.

Lemma abs_congr q q' : cnt q' = cnt q -> (forall i, i < cnt q -> getu q' i = getu q i) -> abs q' = abs q.
Proof.
  intros Hc Hn. apply abs_ext.
  - rewrite abs_length. exact Hc.
  - intros i Hi. rewrite abs_length in Hi. rewrite nth_abs by exact Hi. apply Hn. exact Hi.
Qed.

#[export] Hint Rewrite abs_length : nthdb.
#[export] Hint Rewrite nth_abs' : absdb.
