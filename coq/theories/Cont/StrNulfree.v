(* C17 -- level 0 stays inside its domain: the level-0 functions map NUL-free strings to NUL-free strings (given
   NUL-free operands); hint database [nulfree].  StrProofs.v draws the conclusion for every operation. *)
From Coq Require Import List NArith ZArith Bool Lia.
From Muscle Require Import Cont.StrL0 Cont.StrLemmas Cont.StrL0Facts.
Import ListNotations.
Local Open Scope N_scope.

Create HintDb nulfree.

Lemma nulfree_nil : nulfree []. Proof. constructor. Qed.
Lemma nulfree_cons x l : x <> 0 -> nulfree l -> nulfree (x :: l). Proof. now constructor. Qed.
Lemma nulfree_app2 a b : nulfree a -> nulfree b -> nulfree (a ++ b).
Proof. intros. now apply nulfree_app. Qed.
#[export] Hint Resolve nulfree_nil nulfree_cons nulfree_app2 nulfree_takeN nulfree_dropN nulfree_rev nulfree_repN
  cstr_is_nulfree : nulfree.
#[export] Hint Extern 2 (_ <> 0) => discriminate : nulfree.

Lemma nulfree_map f l : (forall x, x <> 0 -> f x <> 0) -> nulfree l -> nulfree (map f l).
Proof. intros Hf H. induction H; cbn [map]; constructor; auto. Qed.
Lemma to_lower_nz x : x <> 0 -> to_lower x <> 0.
Proof. intros H. unfold to_lower. destruct (is_upper x); lia. Qed.
Lemma to_upper_nz x : x <> 0 -> to_upper x <> 0.
Proof.
  intros H. unfold to_upper, is_lower. destruct (97 <=? x) eqn:E; cbn [andb]; [|exact H].
  apply N.leb_le in E. destruct (x <=? 122); lia.
Qed.
Lemma nulfree_lower l : nulfree l -> nulfree (map to_lower l).
Proof. apply nulfree_map, to_lower_nz. Qed.
Lemma nulfree_upper l : nulfree l -> nulfree (map to_upper l).
Proof. apply nulfree_map, to_upper_nz. Qed.
Lemma nulfree_mixed_aux b l : nulfree l -> nulfree (mixed_aux b l).
Proof.
  intros H. revert b. induction H as [|x l Hx Hl IH]; intros b; cbn [mixed_aux]; constructor; [|apply IH].
  destruct b; [now apply to_lower_nz|now apply to_upper_nz].
Qed.
Lemma nulfree_mixed l : nulfree l -> nulfree (l0_mixed l).
Proof. apply nulfree_mixed_aux. Qed.
Lemma nulfree_l0_sub l a b : nulfree l -> nulfree (l0_sub l a b).
Proof. intros H. unfold l0_sub. destruct (a <? _); auto with nulfree. Qed.
Lemma nulfree_l0_insert l i x : nulfree l -> nulfree x -> nulfree (l0_insert l i x).
Proof. intros. unfold l0_insert. auto with nulfree. Qed.
Lemma nulfree_trunc_chars l n : nulfree l -> nulfree (l0_trunc_chars l n).
Proof. apply nulfree_takeN. Qed.
Lemma nulfree_trunc_to l n : nulfree l -> nulfree (l0_trunc_to l n).
Proof. apply nulfree_takeN. Qed.
Lemma nulfree_upd l i v : v <> 0 -> nulfree l -> nulfree (upd l i v).
Proof. intros. unfold upd, blit. auto with nulfree. Qed.
#[export] Hint Resolve nulfree_lower nulfree_upper nulfree_mixed nulfree_l0_sub nulfree_l0_insert nulfree_trunc_chars
  nulfree_trunc_to nulfree_upd : nulfree.

Lemma nulfree_l0_minus l x : nulfree l -> nulfree (l0_minus l x).
Proof. intros H. unfold l0_minus. destruct x; [exact H|]. destruct (l0_last_index_of1 l _); auto with nulfree. Qed.
Lemma nulfree_l0_minus_ch l ch : nulfree l -> nulfree (l0_minus_ch l ch).
Proof. intros H. unfold l0_minus_ch. destruct (l0_last_index_of_ch l ch 0); auto with nulfree. Qed.
Lemma nulfree_replace_ch_aux l a b max : b <> 0 -> nulfree l -> nulfree (fst (replace_ch_aux l a b max)).
Proof.
  intros Hb H. revert max. induction H as [|x l Hx Hl IH]; intros max; cbn [replace_ch_aux]; [constructor|].
  destruct ((0 <? max) && (x =? a)).
  - specialize (IH (max - 1)). destruct (replace_ch_aux l a b (max - 1)). cbn [fst] in *. now constructor.
  - specialize (IH max). destruct (replace_ch_aux l a b max). cbn [fst] in *. now constructor.
Qed.
Lemma nulfree_replace_ch l a b max from : b <> 0 -> nulfree l -> nulfree (fst (l0_replace_ch l a b max from)).
Proof.
  intros Hb H. unfold l0_replace_ch. destruct (negb (a =? b) && (from <? lenN l)); [|exact H].
  pose proof (nulfree_replace_ch_aux (dropN from l) a b max Hb (nulfree_dropN from l H)) as X.
  destruct (replace_ch_aux (dropN from l) a b max). cbn [fst] in *. auto with nulfree.
Qed.
Lemma nulfree_replace_sub_fuel f l rm wm max : nulfree l -> nulfree wm -> nulfree (fst (replace_sub_fuel f l rm wm max)).
Proof.
  intros H Hw. revert l max H. induction f as [|f IH]; intros l max H; cbn [replace_sub_fuel]; [exact H|].
  destruct (0 <? max); [|exact H]. destruct (find_sub rm l) as [k|]; [|exact H].
  specialize (IH (dropN (k + lenN rm) l) (max - 1) (nulfree_dropN _ l H)).
  destruct (replace_sub_fuel f (dropN (k + lenN rm) l) rm wm (max - 1)). cbn [fst] in *. auto with nulfree.
Qed.
Lemma nulfree_replace_sub l rm wm max from : nulfree l -> nulfree wm -> nulfree (fst (l0_replace_sub l rm wm max from)).
Proof.
  intros H Hw. unfold l0_replace_sub. destruct ((max =? 0) || (lenN l <=? from) || (lenN rm =? 0)); [exact H|].
  pose proof (nulfree_replace_sub_fuel (S (length l)) (dropN from l) rm wm max (nulfree_dropN from l H) Hw) as X.
  destruct (replace_sub_fuel (S (length l)) (dropN from l) rm wm max). cbn [fst] in *. auto with nulfree.
Qed.
Lemma nulfree_drop_while p l : nulfree l -> nulfree (drop_while p l).
Proof. intros H. induction H; cbn [drop_while]; [constructor|]. destruct (p x); [assumption|now constructor]. Qed.
Lemma nulfree_trimmed l : nulfree l -> nulfree (l0_trimmed l).
Proof. intros H. unfold l0_trimmed. now apply nulfree_rev, nulfree_drop_while, nulfree_rev, nulfree_drop_while. Qed.
Lemma nulfree_l0_arg l v : nulfree l -> nulfree v -> nulfree (l0_arg l v).
Proof. intros H Hv. unfold l0_arg. destruct (0 <=? _)%Z; [|exact H]. now apply nulfree_replace_sub. Qed.
#[export] Hint Resolve nulfree_l0_minus nulfree_l0_minus_ch nulfree_replace_ch nulfree_replace_sub nulfree_trimmed
  nulfree_l0_arg : nulfree.

Lemma nulfree_strip_suffix f l suf max : nulfree l -> nulfree (strip_suffix_fuel f l suf max).
Proof.
  revert l max. induction f as [|f IH]; intros l max H; cbn [strip_suffix_fuel]; [exact H|].
  destruct ((0 <? max) && ends_with l suf); auto with nulfree.
Qed.
Lemma nulfree_strip_prefix f l pre max : nulfree l -> nulfree (strip_prefix_fuel f l pre max).
Proof.
  revert l max. induction f as [|f IH]; intros l max H; cbn [strip_prefix_fuel]; [exact H|].
  destruct ((0 <? max) && starts_with l pre); auto with nulfree.
Qed.
Lemma nulfree_strip_suffix_nc f l suf max : nulfree l -> nulfree (strip_suffix_nc_fuel f l suf max).
Proof.
  revert l max. induction f as [|f IH]; intros l max H; cbn [strip_suffix_nc_fuel]; [exact H|].
  destruct ((0 <? max) && ends_with_nocase l suf); auto with nulfree.
Qed.
Lemma nulfree_strip_prefix_nc f l pre max : nulfree l -> nulfree (strip_prefix_nc_fuel f l pre max).
Proof.
  revert l max. induction f as [|f IH]; intros l max H; cbn [strip_prefix_nc_fuel]; [exact H|].
  destruct ((0 <? max) && starts_with_nocase l pre); auto with nulfree.
Qed.
#[export] Hint Resolve nulfree_strip_suffix nulfree_strip_prefix nulfree_strip_suffix_nc nulfree_strip_prefix_nc : nulfree.
Lemma nulfree_without_suffix l suf max : nulfree l -> nulfree (l0_without_suffix l suf max).
Proof. intros. unfold l0_without_suffix. destruct suf; auto with nulfree. Qed.
Lemma nulfree_without_prefix l pre max : nulfree l -> nulfree (l0_without_prefix l pre max).
Proof. intros. unfold l0_without_prefix. destruct pre; auto with nulfree. Qed.
Lemma nulfree_without_suffix_nc l suf max : nulfree l -> nulfree (l0_without_suffix_nc l suf max).
Proof. intros. unfold l0_without_suffix_nc. destruct suf; auto with nulfree. Qed.
Lemma nulfree_without_prefix_nc l pre max : nulfree l -> nulfree (l0_without_prefix_nc l pre max).
Proof. intros. unfold l0_without_prefix_nc. destruct pre; auto with nulfree. Qed.
Lemma nulfree_without_suffix_ch l ch max : nulfree l -> nulfree (l0_without_suffix_ch l ch max).
Proof. apply nulfree_strip_suffix. Qed.
Lemma nulfree_strip_ch_prefix_nc l ch max : nulfree l -> nulfree (strip_ch_prefix_nc l ch max).
Proof.
  intros H. revert max. induction H as [|x l Hx Hl IH]; intros max; cbn [strip_ch_prefix_nc]; [constructor|].
  destruct ((0 <? max) && ((x =? to_upper ch) || (x =? to_lower ch))); [apply IH|now constructor].
Qed.
Lemma nulfree_strip_ch_prefix l ch max : nulfree l -> nulfree (strip_ch_prefix l ch max).
Proof.
  intros H. revert max. induction H as [|x l Hx Hl IH]; intros max; cbn [strip_ch_prefix]; [constructor|].
  destruct ((0 <? max) && (x =? ch)); [apply IH|now constructor].
Qed.
Lemma nulfree_without_prefix_ch l ch max : nulfree l -> nulfree (l0_without_prefix_ch l ch max).
Proof. apply nulfree_strip_ch_prefix. Qed.
Lemma nulfree_padded l m r ch : nulfree l -> nulfree (l0_padded l m r ch).
Proof.
  intros H. unfold l0_padded. destruct (ch =? 0) eqn:E; cbn [negb]; [now rewrite andb_false_r|].
  apply N.eqb_neq in E. rewrite andb_true_r. destruct (lenN l <? m); [|exact H]. destruct r; auto with nulfree.
Qed.
#[export] Hint Resolve nulfree_without_suffix nulfree_without_prefix nulfree_without_suffix_nc nulfree_without_prefix_nc
  nulfree_without_suffix_ch nulfree_strip_ch_prefix_nc nulfree_without_prefix_ch nulfree_padded : nulfree.

Lemma nulfree_with_word l idx w sep : nulfree l -> nulfree w -> nulfree sep -> nulfree (l0_with_word l idx w sep).
Proof.
  intros F Fw Fs. unfold l0_with_word.
  destruct (is_nil w); [exact F|]. destruct (is_nil sep); [now apply nulfree_l0_insert|].
  destruct (lenN l <=? idx).
  { destruct (is_nil l || ends_with l sep || starts_with w sep); auto with nulfree. }
  destruct (idx =? 0).
  { destruct (is_nil l || starts_with l sep || ends_with w sep); auto with nulfree. }
  cbn zeta. repeat match goal with |- context [if ?c then _ else _] => destruct c end; auto 10 with nulfree.
Qed.
Lemma nulfree_indent_fold pad seen l acc : nulfree pad -> nulfree l -> nulfree acc -> nulfree (indent_fold pad seen l acc).
Proof.
  intros Fp Fl. revert seen acc. induction Fl as [|c t Hc Ht IH]; intros seen acc Fa; cbn [indent_fold]; [exact Fa|].
  destruct ((c =? 10) || (c =? 13)); [|destruct seen]; apply IH; auto with nulfree.
Qed.
Lemma nulfree_indented l n ch : nulfree l -> nulfree (l0_indented l n ch).
Proof.
  intros F. unfold l0_indented. destruct (n =? 0); cbn [orb]; [exact F|]. destruct (ch =? 0) eqn:E; [exact F|].
  apply N.eqb_neq in E. apply nulfree_indent_fold; trivial; [|destruct (_ || _)]; auto with nulfree.
Qed.
Lemma nulfree_esc_fold seps esc pe pc l acc : esc <> 0 -> nulfree l -> nulfree acc -> nulfree (esc_fold seps esc pe pc l acc).
Proof.
  intros He Fl. revert pe pc acc. induction Fl as [|c t Hc Ht IH]; intros pe pc acc Fa; cbn [esc_fold]; [exact Fa|].
  apply IH. destruct (negb pe && _); auto with nulfree.
Qed.
Lemma nulfree_escaped l seps esc : nulfree l -> nulfree (l0_escaped l seps esc).
Proof.
  intros F. unfold l0_escaped. destruct (esc =? 0) eqn:E; [exact F|]. apply N.eqb_neq in E.
  destruct (_ && _); [exact F|]. apply nulfree_esc_fold; auto with nulfree.
Qed.
Lemma nulfree_multi_fuel f pairs l max :
  Forall (fun p => nulfree (snd p)) pairs -> nulfree l -> nulfree (fst (multi_fuel f pairs l max)).
Proof.
  intros Fp. revert l max. induction f as [|f IH]; intros l max F; cbn [multi_fuel]; [exact F|].
  destruct l as [|c t]; [constructor|].
  destruct (if 0 <? max then key_at pairs (c :: t) else None) as [[k v]|] eqn:EK.
  - assert (Fv : nulfree v).
    { destruct (0 <? max); [|discriminate EK]. unfold key_at in EK. apply find_some in EK. destruct EK as [Hin _].
      rewrite Forall_forall in Fp. apply (Fp _ Hin). }
    specialize (IH (dropN (lenN k) (c :: t)) (dec_max max) (nulfree_dropN _ _ F)).
    destruct (multi_fuel f pairs (dropN (lenN k) (c :: t)) (dec_max max)). cbn [fst] in *. auto with nulfree.
  - inversion F; subst. specialize (IH t max H2). destruct (multi_fuel f pairs t max). cbn [fst] in *. now constructor.
Qed.
Lemma nulfree_replace_multi l pairs max :
  Forall (fun p => nulfree (snd p)) pairs -> nulfree l -> nulfree (fst (l0_replace_multi l pairs max)).
Proof. apply nulfree_multi_fuel. Qed.

Lemma nulfree_dec_fuel f n acc : nulfree acc -> nulfree (dec_fuel f n acc).
Proof.
  revert n acc. induction f as [|f IH]; intros n acc H; cbn [dec_fuel]; [exact H|].
  assert (X : nulfree ((48 + n mod 10) :: acc)) by (constructor; [intros E; apply N.eq_add_0 in E; destruct E; discriminate|exact H]).
  destruct (n / 10 =? 0); [exact X|now apply IH].
Qed.
Lemma nulfree_dec_of_Z z : nulfree (dec_of_Z z).
Proof.
  unfold dec_of_Z, dec_of_N. destruct z; try (apply nulfree_dec_fuel; constructor).
  constructor; [discriminate|apply nulfree_dec_fuel; constructor].
Qed.
Lemma float_text_facts buf m : nulfree buf -> nulfree (l0_float_text buf m) /\ lenN (l0_float_text buf m) <= lenN buf + m + 1.
Proof.
  intros F. unfold l0_float_text.
  set (s1 := if existsb (N.eqb 46) buf then strip_suffix_fuel (S (length buf)) buf [48] NOLIMIT else buf).
  assert (F1 : nulfree s1) by (unfold s1; destruct (existsb (N.eqb 46) buf); auto with nulfree).
  assert (L1 : lenN s1 <= lenN buf) by (unfold s1; destruct (existsb (N.eqb 46) buf); [apply strip_suffix_fuel_len|lia]).
  destruct (m =? 0).
  - destruct (ends_with s1 [46]); [|split; [exact F1|lia]].
    split; [auto with nulfree|]. pose proof (l0_trunc_chars_len s1 1). lia.
  - destruct (l0_last_index_of_ch s1 46 0); (split; [auto 6 with nulfree|]);
      rewrite ?lenN_app, lenN_repN, ?lenN_cons, ?lenN_nil; lia.
Qed.
Lemma nulfree_float_text buf m : nulfree buf -> nulfree (l0_float_text buf m).
Proof. intros F. apply (float_text_facts buf m F). Qed.
#[export] Hint Resolve nulfree_with_word nulfree_indented nulfree_escaped nulfree_replace_multi nulfree_dec_of_Z
  nulfree_float_text : nulfree.
