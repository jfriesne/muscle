(* C09 -- SwapContents / move construction: two tables exchange their contents and their iterators. *)
From Coq Require Import List Arith ZArith NArith PArith Bool Lia FMapPositive Permutation.
From Muscle Require Import Cont.HtModel Cont.HtStep Cont.HtLemmas Cont.HtRepr Cont.HtWalk Cont.HtIters
                           Cont.HtTable Cont.HtMoves Cont.HtPut Cont.HtInv.
Import ListNotations.

Definition reown (t : nat) (it : iter) : iter := mkIter (Some t) (icookie it) (ibw it) (inoreg it) (iscr it).

Lemma set_owners_eq : forall I L t, set_owners I L t = map_its (reown t) L I.
Proof. reflexivity. Qed.

Definition same_content (h h' : ht) : Prop :=
  nodes h' = nodes h /\ hd h' = hd h /\ tl h' = tl h /\ cnt h' = cnt h /\ fresh h' = fresh h /\ ilist h' = ilist h.

Lemma tinv_same_content : forall h h' l, same_content h h' -> tinv h l -> tinv h' l.
Proof.
  intros h h' l (En & Eh & Et & Ec & Ef & Ei) [L C D F K].
  assert (G : forall y, getn h' y = getn h y) by (intros; unfold getn; rewrite En; reflexivity).
  constructor.
  - apply (linked_ext h h' l L); auto.
  - congruence.
  - intros e He. apply D. unfold live in *. rewrite <- G. exact He.
  - intros e He. rewrite Ef. apply F. unfold live in *. rewrite <- G. exact He.
  - assert (E : map (keyf h') l = map (keyf h) l) by (apply map_ext; intros; unfold keyf; rewrite (keyf_ext h h' _ (G a)); reflexivity).
    rewrite E. exact K.
Qed.

Lemma live_same_content : forall h h' c, same_content h h' -> (live h' c <-> live h c).
Proof. intros h h' c (En & _). unfold live, getn. rewrite En. tauto. Qed.

Lemma upd_nth_upd_nth_same : forall A (l : list A) i x y, upd_nth (upd_nth l i x) i y = upd_nth l i y.
Proof.
  intros A l i x y. destruct (Nat.lt_ge_cases i (length l)) as [Hl|Hg].
  - destruct l as [|d l']; [cbn in Hl; lia|]. apply (nth_ext _ _ d d).
    + rewrite !upd_nth_length. reflexivity.
    + intros n Hn. destruct (Nat.eq_dec n i) as [->|Hni].
      * rewrite !nth_upd_nth_same; rewrite ?upd_nth_length; auto.
      * rewrite !nth_upd_nth_other by congruence. reflexivity.
  - unfold upd_nth. apply Nat.ltb_ge in Hg. rewrite Hg, Hg. reflexivity.
Qed.

Definition exchange (w : world) (t u : nat) (a' b' : ht) : world :=
  mkW (upd_nth (upd_nth (tabs w) t a') u b')
      (set_owners (set_owners (its w) (ilist (gett w u)) t) (ilist (gett w t)) u).

Section Exchange.
Variables (w : world) (t u : nat) (a' b' : ht).
Hypothesis W : WF w.
Hypothesis Ht : t < length (tabs w).
Hypothesis Hu : u < length (tabs w).
Hypothesis Htu : t <> u.
Let a := gett w t.
Let b := gett w u.
Hypothesis Sa : same_content b a'.
Hypothesis Sb : same_content a b'.

Let I1 := set_owners (set_owners (its w) (ilist b) t) (ilist a) u.
Let w' := exchange w t u a' b'.

Lemma ex_disjoint : forall i, In i (ilist a) -> In i (ilist b) -> False.
Proof.
  intros i Ha Hb.
  destruct (tl_reg _ _ _ (wf_tabs _ W t Ht) i Ha) as (it & Hg & O & _).
  destruct (tl_reg _ _ _ (wf_tabs _ W u Hu) i Hb) as (it2 & Hg2 & O2 & _).
  fold a in Hg. rewrite Hg in Hg2. inversion Hg2; subst. rewrite O in O2. inversion O2. contradiction.
Qed.

Lemma ex_geti : forall i, geti I1 i =
  if in_dec Nat.eq_dec i (ilist a) then option_map (reown u) (geti (its w) i)
  else if in_dec Nat.eq_dec i (ilist b) then option_map (reown t) (geti (its w) i)
  else geti (its w) i.
Proof.
  intros i. unfold I1. rewrite !set_owners_eq.
  pose proof (tl_nodup _ _ _ (wf_tabs _ W t Ht)) as Na. pose proof (tl_nodup _ _ _ (wf_tabs _ W u Hu)) as Nb.
  fold a in Na. fold b in Nb.
  destruct (in_dec Nat.eq_dec i (ilist a)) as [Ha|Ha].
  - rewrite map_its_in by assumption. rewrite map_its_notin; [reflexivity|]. intro Hb. exact (ex_disjoint i Ha Hb).
  - rewrite map_its_notin by assumption. destruct (in_dec Nat.eq_dec i (ilist b)) as [Hb|Hb].
    + apply map_its_in; assumption.
    + apply map_its_notin; assumption.
Qed.

Lemma ex_len_tabs : length (tabs w') = length (tabs w).
Proof. unfold w'. cbn. rewrite !upd_nth_length. reflexivity. Qed.

Lemma ex_gett_t : gett w' t = a'.
Proof. unfold gett, w'. cbn. rewrite nth_upd_nth_other by congruence. apply nth_upd_nth_same. exact Ht. Qed.
Lemma ex_gett_u : gett w' u = b'.
Proof. unfold gett, w'. cbn. apply nth_upd_nth_same. rewrite upd_nth_length. exact Hu. Qed.
Lemma ex_gett_other : forall v, v <> t -> v <> u -> gett w' v = gett w v.
Proof. intros v H1 H2. unfold gett, w'. cbn. rewrite !nth_upd_nth_other by congruence. reflexivity. Qed.

(* the table that receives the contents of [src] (owned by [so]) under the new owner [dn] *)
Lemma ex_TL_recv : forall (src h' : ht) (so dn : nat),
  TL so src (its w) -> same_content src h' ->
  (forall i, In i (ilist src) -> geti I1 i = option_map (reown dn) (geti (its w) i)) ->
  (forall i it, geti I1 i = Some it -> iown it = Some dn -> ~ In i (ilist src) ->
       geti (its w) i = Some it /\ inoreg it = true) ->
  TL dn h' I1.
Proof.
  intros src h' so dn [HT Hnd Hreg Hown] S Hin Hout.
  destruct S as (En & Eh & Et & Ec & Ef & Ei). constructor.
  - destruct HT as (l & T). exists l. apply (tinv_same_content src h' l); [repeat split; assumption|exact T].
  - rewrite Ei. exact Hnd.
  - rewrite Ei. intros i Hi. destruct (Hreg i Hi) as (it & Hg & O & R). exists (reown dn it).
    rewrite (Hin i Hi), Hg. cbn. auto.
  - rewrite Ei. intros i it Hg O. destruct (in_dec Nat.eq_dec i (ilist src)) as [Hi|Hi].
    + rewrite (Hin i Hi) in Hg. destruct (geti (its w) i) as [it0|] eqn:Hg0; [|discriminate]. cbn in Hg. inversion Hg; subst it.
      destruct (Hreg i Hi) as (it1 & Hg1 & O1 & R1). rewrite Hg0 in Hg1. inversion Hg1; subst it1.
      destruct (Hown i it0 Hg0 O1) as [_ B]. split; [intros; exact Hi|].
      intros c Hc. cbn in Hc. destruct (B c Hc) as [R L]. split; [exact R|].
      unfold live, getn. rewrite En. exact L.
    + destruct (Hout i it Hg O Hi) as [Hg0 R]. split; [rewrite R; discriminate|].
      intros c Hc. exfalso.
      (* an unregistered iterator has no cookie *)
      pose proof (wf_its _ W i it Hg0) as P. rewrite O in P.
      destruct (tl_own _ _ _ (wf_tabs _ W dn P) i it Hg0 O) as [_ B]. destruct (B c Hc) as [R' _]. congruence.
Qed.

Lemma ex_geti_inv : forall i it, geti I1 i = Some it ->
  exists it0, geti (its w) i = Some it0 /\
    ((In i (ilist a) /\ it = reown u it0) \/ (In i (ilist b) /\ it = reown t it0) \/
     (~ In i (ilist a) /\ ~ In i (ilist b) /\ it = it0)).
Proof.
  intros i it Hg. rewrite ex_geti in Hg.
  destruct (in_dec Nat.eq_dec i (ilist a)) as [Ha|Ha]; [|destruct (in_dec Nat.eq_dec i (ilist b)) as [Hb|Hb]];
    [destruct (geti (its w) i) as [it0|]; [|discriminate]; inversion Hg; exists it0; auto..|exists it; auto 6].
Qed.

Lemma ex_not_listed : forall v x i it, v < length (tabs w) -> x < length (tabs w) -> v <> x ->
  geti (its w) i = Some it -> iown it = Some v -> ~ In i (ilist (gett w x)).
Proof.
  intros v x i it Hv Hx Hvx Hg O Hin. destruct (tl_reg _ _ _ (wf_tabs _ W x Hx) i Hin) as (it2 & Hg2 & O2 & _). congruence.
Qed.

Lemma WF_exchange : WF w'.
Proof.
  pose proof (wf_tabs _ W t Ht) as TLa. pose proof (wf_tabs _ W u Hu) as TLb. fold a in TLa. fold b in TLb.
  constructor.
  - intros v Hv. rewrite ex_len_tabs in Hv. change (its w') with I1.
    destruct (Nat.eq_dec v t) as [->|Hvt]; [|destruct (Nat.eq_dec v u) as [->|Hvu]].
    + rewrite ex_gett_t. apply (ex_TL_recv b a' u t TLb Sa).
      * intros i Hi. rewrite ex_geti. destruct (in_dec Nat.eq_dec i (ilist a)) as [Ha|Ha]; [destruct (ex_disjoint i Ha Hi)|].
        destruct (in_dec Nat.eq_dec i (ilist b)); [reflexivity|contradiction].
      * intros i it Hg O Hni. destruct (ex_geti_inv i it Hg) as (it0 & Hg0 & [[Ha ->]|[[Hb ->]|(Ha & Hb & ->)]]);
          [cbn in O; congruence|contradiction|].
        split; [exact Hg0|]. destruct (tl_own _ _ _ TLa i it0 Hg0 O) as [A _].
        destruct (inoreg it0); [reflexivity|destruct (Ha (A eq_refl))].
    + rewrite ex_gett_u. apply (ex_TL_recv a b' t u TLa Sb).
      * intros i Hi. rewrite ex_geti. destruct (in_dec Nat.eq_dec i (ilist a)); [reflexivity|contradiction].
      * intros i it Hg O Hni. destruct (ex_geti_inv i it Hg) as (it0 & Hg0 & [[Ha ->]|[[Hb ->]|(Ha & Hb & ->)]]);
          [contradiction|cbn in O; congruence|].
        split; [exact Hg0|]. destruct (tl_own _ _ _ TLb i it0 Hg0 O) as [A _].
        destruct (inoreg it0); [reflexivity|destruct (Hb (A eq_refl))].
    + rewrite ex_gett_other by assumption. destruct (wf_tabs _ W v Hv) as [HT Hnd Hreg Hown]. constructor; try assumption.
      * intros i Hi. destruct (Hreg i Hi) as (it & Hg & O & R). exists it. split; [|auto]. rewrite ex_geti.
        destruct (in_dec Nat.eq_dec i (ilist a)) as [Ha|_]; [destruct (ex_not_listed v t i it Hv Ht Hvt Hg O Ha)|].
        destruct (in_dec Nat.eq_dec i (ilist b)) as [Hb|_]; [destruct (ex_not_listed v u i it Hv Hu Hvu Hg O Hb)|exact Hg].
      * intros i it Hg O. destruct (ex_geti_inv i it Hg) as (it0 & Hg0 & [[_ ->]|[[_ ->]|(_ & _ & ->)]]);
          [cbn in O; congruence..|apply (Hown i it0 Hg0 O)].
  - intros i it Hg. change (its w') with I1 in Hg. rewrite ex_len_tabs.
    destruct (ex_geti_inv i it Hg) as (it0 & Hg0 & [[_ ->]|[[_ ->]|(_ & _ & ->)]]); [exact Hu|exact Ht|apply (wf_its _ W i it0 Hg0)].
Qed.

End Exchange.

(* move construction: the destination is destroyed (a0), then the two tables exchange their contents *)
Lemma movector_exchange : forall w t u dcap J, t < length (tabs w) -> t <> u ->
  let b := gett w u in
  let a0 := mkHt (PositiveMap.empty node) None None 0 dcap (fresh (gett w t)) true [] in
  let a' := mkHt (nodes b) (hd b) (tl b) (cnt b) (cap b) (fresh b) true (ilist b) in
  let b' := mkHt (PositiveMap.empty node) None None 0 0 (fresh (gett w t)) (asort b) [] in
  mkW (upd_nth (upd_nth (tabs w) t a') u b') (set_owners J (ilist b) t) = exchange (put_ti w t a0 J) t u a' b'.
Proof.
  intros w t u dcap J Ht Htu b a0 a' b'. unfold exchange.
  rewrite gett_put_same by exact Ht. rewrite gett_put_other by exact Htu.
  cbn [put_ti tabs its ilist a0 set_owners fold_left]. rewrite upd_nth_upd_nth_same. reflexivity.
Qed.
