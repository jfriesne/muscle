(* C09 -- every operation except SwapContents / move construction (HtSafeAll.v) preserves the world
   invariant; what the invariant says of a world: iterator safety, table consistency. *)
From Coq Require Import List Arith ZArith NArith PArith Bool Lia FMapPositive Permutation.
From Muscle Require Import Cont.HtModel Cont.HtStep Cont.HtLemmas Cont.HtRepr Cont.HtWalk Cont.HtIters
                           Cont.HtTable Cont.HtMoves Cont.HtPut Cont.HtExact Cont.HtRefTab Cont.HtInv Cont.HtSwap.
Import ListNotations.

(* The MoveTo*Aux family, uniformly: under the side condition P, [mv] moves entry e within the list
   ([moved]) and keeps the table invariant. *)
Definition mvspec (t : nat) (mv : ht -> itab -> positive -> ht * itab) (P : ht -> list positive -> positive -> Prop) : Prop :=
  forall h J l e, TL t h J -> tinv h l -> In e l -> P h l e ->
    (exists l', moved h J e l l' (mv h J e)) /\ okstep t J (mv h J e).

Lemma mvs_front : forall t, mvspec t move_front_aux (fun _ _ _ => True).
Proof.
  intros t h J l e HTL T He _. split; [|apply (move_front_ok t h J e l HTL T He)].
  destruct (in_split _ _ He) as (l1 & l2 & ->). eexists. apply move_front_exact. exact T.
Qed.

Lemma mvs_back : forall t, mvspec t move_back_aux (fun _ _ _ => True).
Proof.
  intros t h J l e HTL T He _. split; [|apply (move_back_ok t h J e l HTL T He)].
  destruct (in_split _ _ He) as (l1 & l2 & ->). eexists. apply move_back_exact. exact T.
Qed.

Lemma mvs_pos : forall t idx, mvspec t (fun h J e => move_pos_aux h J e idx) (fun _ _ _ => True).
Proof.
  intros t idx h J l e HTL T He _. split; [|apply (move_pos_ok t h J e idx l HTL T He)].
  destruct (in_split _ _ He) as (l1 & l2 & ->). eexists. apply move_pos_exact. exact T.
Qed.

Definition beside (f : positive) : ht -> list positive -> positive -> Prop := fun _ l e => In f l /\ f <> e.

Lemma in_rest_split : forall (l1 l2 : list positive) e f, In f (l1 ++ e :: l2) -> f <> e -> exists p q, l1 ++ l2 = p ++ f :: q.
Proof.
  intros l1 l2 e f Hf Hne. apply in_split. apply in_app_or in Hf. apply in_or_app.
  destruct Hf as [Hf|[Hf|Hf]]; [left; exact Hf|congruence|right; exact Hf].
Qed.

Lemma mvs_before : forall t f, mvspec t (fun h J e => move_before_aux h J e f) (beside f).
Proof.
  intros t f h J l e HTL T He [Hf Hne]. split; [|apply (move_before_ok t h J e f l HTL T He Hf Hne)].
  destruct (in_split _ _ He) as (l1 & l2 & ->). destruct (in_rest_split l1 l2 e f Hf Hne) as (p & q & Epq).
  eexists. apply (move_before_exact h J l1 l2 p q e f T Epq).
Qed.

Lemma mvs_behind : forall t d, mvspec t (fun h J e => move_behind_aux h J e d) (beside d).
Proof.
  intros t d h J l e HTL T He [Hd Hne]. split; [|apply (move_behind_ok t h J e d l HTL T He Hd Hne)].
  destruct (in_split _ _ He) as (l1 & l2 & ->). destruct (in_rest_split l1 l2 e d Hd Hne) as (p & q & Epq).
  eexists. apply (move_behind_exact h J l1 l2 p q e d T Epq).
Qed.

Lemma mvs_repos : forall var t, mvspec t (reposition_aux var) (fun _ _ _ => True).
Proof.
  intros var t h J l e HTL T He _. split; [|apply (proj1 (reposition_ok var t h J e l HTL T He))].
  destruct (in_split _ _ He) as (l1 & l2 & ->). destruct (reposition_aux_exact var h J l1 l2 e T) as (l' & M & _).
  exists l'. exact M.
Qed.

Lemma fst_put4k : forall A (r : ht * itab * positive * option Z) (g : ht -> itab -> positive -> A * out),
  fst (let '(h, J, e, _) := r in g h J e) = fst (g (pa_h r) (pa_i r) (pa_e r)).
Proof. intros A [[[h J] e] old] g. reflexivity. Qed.

Section Safe.
Variable var : variant.
Variable dcap : N.

Lemma put_aux_split : forall h I k v,
  put_aux var dcap h I k v = (pa_h (put_aux var dcap h I k v), pa_i (put_aux var dcap h I k v), pa_e (put_aux var dcap h I k v), snd (put_aux var dcap h I k v)).
Proof. intros. unfold pa_h, pa_i, pa_e. destruct (put_aux var dcap h I k v) as [[[a b] c] d]. reflexivity. Qed.

Lemma WF_put : forall w t k v, WF w -> t < length (tabs w) ->
  let r := put_aux var dcap (gett w t) (its w) k v in WF (put_ti w t (pa_h r) (pa_i r)).
Proof. intros w t k v W Ht. exact (WF_okstep w t (_, _) W Ht (proj1 (put_aux_ok var dcap t _ _ k v (wf_tabs _ W t Ht)))). Qed.

Lemma WF_move : forall w t k mv (x : positive -> out) (y : out), WF w -> t < length (tabs w) ->
  mvspec t mv (fun _ _ _ => True) ->
  WF (fst (match find_key (gett w t) k with
           | Some e => let '(h1, I1) := mv (gett w t) (its w) e in (put_ti w t h1 I1, x e)
           | None => (w, y)
           end)).
Proof.
  intros w t k mv x y W Ht Spec. destruct (find_key (gett w t) k) as [e|] eqn:Ef; [|exact W]. rewrite fst_put2.
  destruct (TL_find_in _ _ _ _ _ (wf_tabs _ W t Ht) Ef) as (l & T & He).
  apply (WF_okstep w t _ W Ht). apply (Spec _ _ l e (wf_tabs _ W t Ht) T He I).
Qed.

Lemma put_then : forall t h I k v mv P, TL t h I -> mvspec t mv P ->
  let r := put_aux var dcap h I k v in
  (forall l, tinv (pa_h r) l -> In (pa_e r) l -> P (pa_h r) l (pa_e r)) ->
  okstep t I (mv (pa_h r) (pa_i r) (pa_e r)).
Proof.
  intros t h I k v mv P HTL Spec r HP. destruct (put_aux_ok var dcap t h I k v HTL) as [O1 Le]. fold r in O1, Le.
  destruct (TL_live_in _ _ _ _ (proj1 O1) Le) as (l & T & He). cbn [fst snd] in *.
  destruct (mv (pa_h r) (pa_i r) (pa_e r)) as [h1 I1] eqn:E. eapply okstep_trans; [exact O1|]. rewrite <- E.
  apply (Spec _ _ l _ (proj1 O1) T He (HP l T He)).
Qed.

(* the two shapes "beside another key": the world is as without the move unless the other key is there
   and has another entry f, and then it is the world after the move beside f *)
Lemma put_beside_cases : forall (Q : world -> Prop) w t (r : ht * itab * positive * option Z) k2
    (mv : ht -> itab -> positive -> positive -> ht * itab) (x : out),
  Q (put_ti w t (pa_h r) (pa_i r)) ->
  (forall f, find_key (pa_h r) k2 = Some f -> pa_e r <> f ->
     Q (put_ti w t (fst (mv (pa_h r) (pa_i r) (pa_e r) f)) (snd (mv (pa_h r) (pa_i r) (pa_e r) f)))) ->
  Q (fst (match find_key (pa_h r) k2 with
          | Some f => if Pos.eqb (pa_e r) f then (put_ti w t (pa_h r) (pa_i r), x)
                      else let '(h1, I1) := mv (pa_h r) (pa_i r) (pa_e r) f in (put_ti w t h1 I1, x)
          | None => (put_ti w t (pa_h r) (pa_i r), x)
          end)).
Proof.
  intros Q w t r k2 mv x Plain Moved. destruct (find_key (pa_h r) k2) as [f|] eqn:Ef; [|exact Plain].
  destruct (Pos.eqb (pa_e r) f) eqn:Eef; [exact Plain|]. rewrite fst_put2. apply (Moved f eq_refl). apply Pos.eqb_neq. exact Eef.
Qed.

Lemma move_beside_cases : forall (Q : world -> Prop) w t k k2 (mv : ht -> itab -> positive -> positive -> ht * itab) (x y z : out),
  Q w ->
  (forall e f, find_key (gett w t) k = Some e -> find_key (gett w t) k2 = Some f -> e <> f ->
     Q (put_ti w t (fst (mv (gett w t) (its w) e f)) (snd (mv (gett w t) (its w) e f)))) ->
  Q (fst (match find_key (gett w t) k, find_key (gett w t) k2 with
          | Some e, Some f => if Pos.eqb e f then (w, x)
                              else let '(h1, I1) := mv (gett w t) (its w) e f in (put_ti w t h1 I1, y)
          | _, _ => (w, z)
          end)).
Proof.
  intros Q w t k k2 mv x y z Same Moved. destruct (find_key (gett w t) k) as [e|] eqn:Ef; [|exact Same].
  destruct (find_key (gett w t) k2) as [f|] eqn:Ef2; [|exact Same]. destruct (Pos.eqb e f) eqn:Eef; [exact Same|].
  rewrite fst_put2. apply (Moved e f eq_refl eq_refl). apply Pos.eqb_neq. exact Eef.
Qed.

Lemma WF_put_beside : forall w t k f v (mv : ht -> itab -> positive -> ht * itab) k2, WF w -> t < length (tabs w) ->
  mvspec t mv (beside f) -> let r := put_aux var dcap (gett w t) (its w) k v in
  find_key (pa_h r) k2 = Some f -> pa_e r <> f ->
  WF (put_ti w t (fst (mv (pa_h r) (pa_i r) (pa_e r))) (snd (mv (pa_h r) (pa_i r) (pa_e r)))).
Proof.
  intros w t k f v mv k2 W Ht Spec r Ef Hne. apply (WF_okstep w t _ W Ht).
  apply (put_then t _ _ k v _ _ (wf_tabs _ W t Ht) Spec). fold r. intros l T He.
  split; [apply (find_key_some_in _ l k2 f T Ef)|congruence].
Qed.

Lemma WF_move_beside : forall w t k k2 e f (mv : ht -> itab -> positive -> ht * itab), WF w -> t < length (tabs w) ->
  mvspec t mv (beside f) -> find_key (gett w t) k = Some e -> find_key (gett w t) k2 = Some f -> e <> f ->
  WF (put_ti w t (fst (mv (gett w t) (its w) e)) (snd (mv (gett w t) (its w) e))).
Proof.
  intros w t k k2 e f mv W Ht Spec Ef Ef2 Hne. apply (WF_okstep w t _ W Ht).
  destruct (tl_tinv _ _ _ (wf_tabs _ W t Ht)) as (l & T).
  apply (Spec _ _ l e (wf_tabs _ W t Ht) T (proj1 (find_key_some_in _ l k e T Ef))).
  split; [apply (find_key_some_in _ l k2 f T Ef2)|congruence].
Qed.

Lemma with_asort_TL : forall t h I b, TL t h I -> TL t (with_asort h b) I.
Proof.
  intros t h I b HTL. apply (TL_same_I t h); [exact HTL| |reflexivity|intros; assumption].
  destruct (tl_tinv _ _ _ HTL) as (l & T). exists l. apply (tinv_same_content h); [repeat split|exact T].
Qed.

Lemma abs_keys_nodup : forall w u, WF w -> u < length (tabs w) -> NoDup (map fst (abs (gett w u))).
Proof.
  intros w u W Hu. destruct (tl_tinv _ _ _ (wf_tabs _ W u Hu)) as (l & T).
  rewrite (tinv_abs _ l T), map_map. apply (ti_keys _ _ T).
Qed.

(* ++ / -- : the scratch copy is dropped, or the cursor follows a link in direction [dir] *)
Lemma WF_advance : forall w i it dir, WF w -> geti (its w) i = Some it ->
  let it' := match iscr it with
             | Some _ => mkIter (iown it) (icookie it) (ibw it) (inoreg it) None
             | None => mkIter (iown it) (match iown it with Some t => subseq (gett w t) (icookie it) dir | None => None end)
                              (ibw it) (inoreg it) None
             end in
  WF (seti_w w (seti (its w) i (Some it'))).
Proof.
  intros w i it dir W Hg it'. apply (WF_iter_update w i it _ W Hg); [unfold it'; destruct (iscr it); reflexivity..|].
  intros c Hck. unfold it' in Hck. destruct (iscr it); cbn in Hck.
  - destruct (WF_cookie w i it c W Hg Hck) as [R (t & O & Ht & L)]. split; [exact R|]. exists t. auto.
  - destruct (iown it) as [t|] eqn:O; [|discriminate]. destruct (icookie it) as [c0|] eqn:Ec; [|discriminate].
    destruct (WF_cookie w i it c0 W Hg Ec) as [R (t' & O' & Ht & L)]. rewrite O in O'. inversion O'; subst t'.
    split; [exact R|]. exists t. split; [reflexivity|]. eapply subseq_live; [apply (wf_tabs _ W t Ht)|exact L|exact Hck].
Qed.

Definition covered (o : op) : bool :=
  match o with OSwap _ _ | OMoveCtor _ _ => false | _ => true end.

Lemma step1_WF_covered : forall w o, WF w -> covered o = true -> WF (fst (step1 var dcap w o)).
Proof.
  intros w o W Hc. pose proof (wf_tabs _ W) as WT.
  destruct o; try discriminate Hc; cbn [step1]; try exact W; try vt ltac:(exact W).
  - (* Put *) rewrite fst_put4. apply WF_put; assumption.
  - (* PutIfAbsent *) destruct (find_key (gett w t) k); [exact W|]. rewrite fst_put4. apply WF_put; assumption.
  - (* GetOrPut *) destruct (find_key (gett w t) k); [exact W|]. rewrite fst_put4. apply WF_put; assumption.
  - (* PutAtFront *) rewrite fst_put4k, fst_put2. apply (WF_okstep w t _ W V1).
    apply (put_then t _ _ k v _ _ (WT t V1) (mvs_front t)). auto.
  - (* PutAtBack *) rewrite fst_put4k, fst_put2. apply (WF_okstep w t _ W V1).
    apply (put_then t _ _ k v _ _ (WT t V1) (mvs_back t)). auto.
  - (* PutBefore *) rewrite fst_put4k. apply put_beside_cases; [apply WF_put; assumption|].
    intros f. apply (WF_put_beside w t k f v _ k2 W V1 (mvs_before t f)).
  - (* PutBehind *) rewrite fst_put4k. apply put_beside_cases; [apply WF_put; assumption|].
    intros f. apply (WF_put_beside w t k f v _ k2 W V1 (mvs_behind t f)).
  - (* PutAtPos *) rewrite fst_put4k, fst_put2. apply (WF_okstep w t _ W V1).
    apply (put_then t _ _ k v _ _ (WT t V1) (mvs_pos t idx)). auto.
  - (* Remove *) destruct (find_key (gett w t) k) as [e|] eqn:Ef; [|exact W]. rewrite fst_put2.
    apply (WF_okstep w t _ W V1 (remove_entry_ok t _ _ e (WT t V1) (TL_find_live _ _ _ _ _ (WT t V1) Ef))).
  - (* RemoveFirst *) destruct (hd (gett w t)) as [e|] eqn:Eh; [|exact W]. rewrite fst_put2.
    apply (WF_okstep w t _ W V1 (remove_entry_ok t _ _ e (WT t V1) (TL_end_live t _ _ false e (WT t V1) Eh))).
  - (* RemoveLast *) destruct (tl (gett w t)) as [e|] eqn:Eh; [|exact W]. rewrite fst_put2.
    apply (WF_okstep w t _ W V1 (remove_entry_ok t _ _ e (WT t V1) (TL_end_live t _ _ true e (WT t V1) Eh))).
  - (* MoveFront *) apply (WF_move w t k _ _ _ W V1 (mvs_front t)).
  - (* MoveBack *) apply (WF_move w t k _ _ _ W V1 (mvs_back t)).
  - (* MoveBefore *) apply move_beside_cases; [exact W|]. intros e f. apply (WF_move_beside w t k k2 e f _ W V1 (mvs_before t f)).
  - (* MoveBehind *) apply move_beside_cases; [exact W|]. intros e f. apply (WF_move_beside w t k k2 e f _ W V1 (mvs_behind t f)).
  - (* MovePos *) apply (WF_move w t k _ _ _ W V1 (mvs_pos t idx)).
  - (* GetMoveFront *) apply (WF_move w t k _ _ _ W V1 (mvs_front t)).
  - (* GetMoveBack *) apply (WF_move w t k _ _ _ W V1 (mvs_back t)).
  - (* SortKey *) apply (WF_okstep w t (_, _) W V1 (okstep_id t _ _ (sort_by_TL t _ _ cmp_key (WT t V1)))).
  - (* SortVal *) apply (WF_okstep w t (_, _) W V1 (okstep_id t _ _ (sort_by_TL t _ _ cmp_val (WT t V1)))).
  - (* Sort *) apply (WF_okstep w t (_, _) W V1 (okstep_id t _ _ (sort_aux_TL t var _ _ (WT t V1)))).
  - (* Reposition *) apply (WF_move w t k _ _ _ W V1 (mvs_repos var t)).
  - (* SetAutoSort *)
    pose proof (with_asort_TL t _ _ en (WT t V1)) as HA.
    destruct var; [exact W| |]; (destruct (Bool.eqb en (asort (gett w t))); [exact W|]; cbn [fst]; apply (WF_okstep w t (_, _) W V1); apply okstep_id;
      destruct (sortnow && en); [apply sort_aux_TL|]; exact HA).
  - (* Ensure *) rewrite fst_put3. apply (WF_okstep w t _ W V1 (ensure_size_ok t dcap _ _ n shrink (WT t V1))).
  - (* ShrinkFit *) destruct (N.ltb _ _); [exact W|]. rewrite fst_put3.
    apply (WF_okstep w t _ W V1 (ensure_size_ok t dcap _ _ _ true (WT t V1))).
  - (* EnsureCanPut *) destruct (N.ltb _ _); [exact W|]. rewrite fst_put3.
    apply (WF_okstep w t _ W V1 (ensure_size_ok t dcap _ _ _ false (WT t V1))).
  - (* Clear *) rewrite fst_put2. apply (WF_okstep w t _ W V1 (clear_ok t dcap _ _ release (WT t V1))).
  - (* CopyFrom *) destruct (t =? u); [exact W|]. rewrite fst_put3.
    apply (WF_okstep w t _ W V1 (copy_from_ok var dcap t _ _ _ _ clearfirst (WT t V1) (abs_keys_nodup w u W V2))).
  - (* CopyCtor: the destination is destroyed first *)
    destruct (t =? u); [exact W|]. unfold clear_tab. cbn [fst fresh]. rewrite fst_put3.
    pose proof (emptied_ok t _ _ (cap (gett w u)) true (WT t V1)) as O0.
    apply (WF_okstep w t _ W V1). eapply okstep_trans; [exact O0|].
    apply (copy_from_ok var dcap t _ _ _ _ true (proj1 O0) (abs_keys_nodup w u W V2)).
  - (* Equal *) exact W.
  - (* MoveToTable: a Put into tab[u], then the removal from tab[t] *)
    destruct (find_key (gett w t) k) as [e|] eqn:Ef; [|exact W].
    destruct (t =? u) eqn:Etu; [exact W|]. apply Nat.eqb_neq in Etu.
    destruct (val_of (gett w t) e) as [v|]; [|exact W]. rewrite fst_put4k.
    pose proof (WF_put w u k v W V2) as W1. cbv zeta in W1.
    set (hu := pa_h _) in *. set (I1 := pa_i _) in *.
    assert (Et : gett (put_ti w u hu I1) t = gett w t) by (apply gett_put_other; congruence).
    assert (V1' : t < length (tabs (put_ti w u hu I1))) by (rewrite len_put; exact V1).
    pose proof (wf_tabs _ W1 t V1') as HTLt. rewrite Et, its_put in HTLt.
    pose proof (remove_entry_ok t _ _ e HTLt (TL_find_live _ _ _ _ _ (WT t V1) Ef)) as R2.
    destruct (remove_entry (gett w t) I1 e) as [ht1 I2]. exact (WF_okstep _ t (ht1, I2) W1 V1' R2).
  - (* CopyToTable *) destruct (find_key (gett w t) k) as [e|] eqn:Ef; [|exact W].
    destruct (t =? u); [exact W|]. destruct (val_of (gett w t) e) as [v|]; [|exact W]. rewrite fst_put4. apply WF_put; assumption.
  - (* RemoveTable *) destruct (t =? u).
    + rewrite fst_put2. apply (WF_okstep w t _ W V1 (clear_ok t dcap _ _ false (WT t V1))).
    + rewrite fst_put3. apply (WF_okstep w t _ W V1 (remove_keys_ok t _ _ _ (WT t V1))).
  - (* Intersect *) destruct (t =? u); [exact W|]. rewrite fst_put3.
    apply (WF_okstep w t _ W V1 (intersect_ids_ok t _ _ _ _ (WT t V1))).
  - (* Destroy *) apply (WF_okstep w t _ W V1 (emptied_ok t _ _ dcap true (WT t V1))).
  - (* Prealloc *) unfold clear_tab. cbn [fst fresh]. rewrite fst_put3.
    pose proof (emptied_ok t _ _ 0%N true (WT t V1)) as O0.
    apply (WF_okstep w t _ W V1). eapply okstep_trans; [exact O0|apply (ensure_size_ok t dcap _ _ n false (proj1 O0))].
  - (* IterNew *)
    destruct (valid_i w i) eqn:Vi; [apply valid_i_lt in Vi|exact W]. vt ltac:(exact W).
    apply (WF_reregister w i t _ bw false None W Vi V1). intros c0 Ec. split; [reflexivity|].
    destruct (unregister_tinv w i t W V1) as (l & T' & T). pose proof (ti_linked _ _ T') as L'.
    apply (lk_live _ _ (ti_linked _ _ T)).
    destruct bw; [apply last_of_in; rewrite <- (lk_tl _ _ L')|apply head_opt_in; rewrite <- (lk_hd _ _ L')]; exact Ec.
  - (* IterAt *)
    destruct (valid_i w i) eqn:Vi; [apply valid_i_lt in Vi|exact W]. vt ltac:(exact W).
    apply (WF_reregister w i t _ bw false None W Vi V1). intros c0 Ec. split; [reflexivity|].
    destruct (unregister_tinv w i t W V1) as (l & T' & T).
    apply (lk_live _ _ (ti_linked _ _ T)). apply (find_key_some_in _ l k c0 T' Ec).
  - (* IterAdv *) destruct (geti (its w) i) as [it|] eqn:Hg; [|exact W]. apply (WF_advance w i it (ibw it) W Hg).
  - (* IterRet *) destruct (geti (its w) i) as [it|] eqn:Hg; [|exact W]. apply (WF_advance w i it (negb (ibw it)) W Hg).
  - (* IterSetBw *)
    destruct (geti (its w) i) as [it|] eqn:Hg; [|exact W]. cbn [fst].
    apply (WF_iter_update w i it _ W Hg); try reflexivity.
    intros c Hck. cbn in Hck. destruct (WF_cookie w i it c W Hg Hck) as [R (t & O & Ht & L)]. split; [exact R|]. exists t. auto.
  - (* IterDel *)
    destruct (valid_i w i) eqn:Vi; [apply valid_i_lt in Vi|exact W]. apply (WF_replace w i None W Vi). discriminate.
  - (* IterCopy *)
    destruct (valid_i w i) eqn:Vi; [apply valid_i_lt in Vi|exact W]. cbn [andb].
    destruct (negb (i =? j)); [|exact W]. destruct (geti (its w) j) as [src|] eqn:Hg; [|exact W]. cbn [fst].
    destruct (iown src) as [t|] eqn:O.
    + pose proof (wf_its _ W j src Hg) as Ht. rewrite O in Ht. apply (WF_reregister w i t _ _ _ _ W Vi Ht).
      intros c0 Ec. destruct (WF_cookie w j src c0 W Hg Ec) as [R (t' & O' & _ & L)]. split; [exact R|congruence].
    + apply (WF_replace w i _ W Vi). intros it E. inversion E. auto.
Qed.

End Safe.

(* the cookie of every iterator is an entry that is currently linked in the iteration list of the
   iterator's own table (never a removed entry) *)
Lemma WF_safe : forall w, WF w -> forall i it c, geti (its w) i = Some it -> icookie it = Some c ->
  inoreg it = false /\
  exists t, iown it = Some t /\ t < length (tabs w) /\ In i (ilist (gett w t)) /\
            In c (ids (gett w t)) /\ kv_of (gett w t) c <> None.
Proof.
  intros w W i it c Hg Hc.
  destruct (WF_cookie w i it c W Hg Hc) as [R (t & O & Ht & L)]. split; [exact R|]. exists t.
  destruct (tl_own _ _ _ (wf_tabs _ W t Ht) i it Hg O) as [A _].
  destruct (tl_tinv _ _ _ (wf_tabs _ W t Ht)) as (l & T).
  split; [exact O|split; [exact Ht|split; [apply A; exact R|split]]].
  - rewrite (tinv_ids _ l T). apply (ti_dom _ _ T). exact L.
  - rewrite (kv_of_live _ _ L). discriminate.
Qed.

Lemma WF_consistent : forall w, WF w -> forall t, t < length (tabs w) ->
  abs_back (gett w t) = rev (abs (gett w t)) /\ NoDup (map fst (abs (gett w t))) /\
  cnt (gett w t) = length (abs (gett w t)).
Proof.
  intros w W t Ht. destruct (tl_tinv _ _ _ (wf_tabs _ W t Ht)) as (l & T).
  split; [apply (tinv_abs_back _ l T)|split].
  - rewrite (tinv_abs _ l T), map_map. apply (ti_keys _ _ T).
  - rewrite (tinv_abs _ l T), map_length. apply (ti_cnt _ _ T).
Qed.

Lemma WF_shown : forall w, WF w -> forall i kv, shown w i = Some kv ->
  exists it, geti (its w) i = Some it /\
    (iscr it = Some kv \/
     (iscr it = None /\ exists t c, iown it = Some t /\ icookie it = Some c /\ In c (ids (gett w t)) /\
                                    In kv (abs (gett w t)) /\ kv_of (gett w t) c = Some kv)).
Proof.
  intros w W i kv Hs.
  unfold shown in Hs. destruct (geti (its w) i) as [it|] eqn:Hg; [|discriminate]. exists it. split; [reflexivity|].
  destruct (iscr it) as [s|] eqn:Es; [left; exact Hs|right]. split; [reflexivity|].
  destruct (iown it) as [t|] eqn:O; [|discriminate]. destruct (icookie it) as [c|] eqn:Ec; [|discriminate].
  exists t, c. destruct (WF_cookie w i it c W Hg Ec) as [R (t' & O' & Ht & L)]. rewrite O in O'. inversion O'; subst t'.
  destruct (tl_tinv _ _ _ (wf_tabs _ W t Ht)) as (l & T).
  split; [reflexivity|split; [reflexivity|split; [|split; [|exact Hs]]]].
  - rewrite (tinv_ids _ l T). apply (ti_dom _ _ T). exact L.
  - rewrite (tinv_abs _ l T). rewrite (kv_of_live _ _ L) in Hs. inversion Hs; subst. apply in_map. apply (ti_dom _ _ T). exact L.
Qed.

Section Reach.
Variable var : variant.
Variable dcap : N.

Lemma run1_WF_covered : forall ops w, WF w -> Forall (fun o => covered o = true) ops -> WF (run1 var dcap w ops).
Proof.
  induction ops as [|o ops IH]; intros w W F; [exact W|]. inversion F; subst. cbn [run1 fold_left].
  apply IH; [apply step1_WF_covered; assumption|assumption].
Qed.

Lemma iter_safe_covered : forall nt ni ops, Forall (fun o => covered o = true) ops ->
  let w := run1 var dcap (init_world dcap nt ni) ops in
  forall i it c, geti (its w) i = Some it -> icookie it = Some c ->
    inoreg it = false /\
    exists t, iown it = Some t /\ t < length (tabs w) /\ In i (ilist (gett w t)) /\
              In c (ids (gett w t)) /\ kv_of (gett w t) c <> None.
Proof. intros nt ni ops F. apply WF_safe. apply run1_WF_covered; [apply WF_init|exact F]. Qed.

Lemma tables_consistent_covered : forall nt ni ops, Forall (fun o => covered o = true) ops ->
  let w := run1 var dcap (init_world dcap nt ni) ops in
  forall t, t < length (tabs w) ->
    abs_back (gett w t) = rev (abs (gett w t)) /\ NoDup (map fst (abs (gett w t))) /\
    cnt (gett w t) = length (abs (gett w t)).
Proof. intros nt ni ops F. apply WF_consistent. apply run1_WF_covered; [apply WF_init|exact F]. Qed.

End Reach.
