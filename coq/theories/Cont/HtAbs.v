(* C09 -- the ideal-map functions (a_get, a_index, a_remove, a_set, a_insert_at, ...) computed on
   [map (kvf h) l] for a list of entries with pairwise different keys. *)
From Coq Require Import List Arith ZArith NArith PArith Bool Lia FMapPositive Permutation.
From Muscle Require Import Cont.HtModel Cont.HtLemmas Cont.HtWalk.
Import ListNotations.

Section A.
Variable h : ht.
Notation kv := (kvf h).
Notation key := (keyf h).


Lemma a_get_map_in : forall l e, NoDup (map key l) -> In e l -> a_get (map kv l) (key e) = Some (valf h e).
Proof. intros l e Hnd He. rewrite (a_get_map h), (find_id_unique h (key e) l e Hnd He eq_refl). reflexivity. Qed.

Lemma a_get_map_none : forall l k, (forall e, In e l -> key e <> k) -> a_get (map kv l) k = None.
Proof.
  intros l k H. rewrite (a_get_map h). destruct (find_id h k l) as [e|] eqn:E; [|reflexivity].
  apply find_id_some in E. destruct E as [He Hk]. exfalso. exact (H e He Hk).
Qed.

Lemma a_index_cons_eq : forall x r i, a_index (kv x :: r) (key x) i = Some i.
Proof. intros. cbn [a_index]. unfold keyf. destruct (kvf h x) as [kx vx]. cbn [fst]. rewrite Z.eqb_refl. reflexivity. Qed.
Lemma a_index_cons_neq : forall x r k i, key x <> k -> a_index (kv x :: r) k i = a_index r k (S i).
Proof. intros x r k i H. cbn [a_index]. unfold keyf in H. destruct (kvf h x) as [kx vx]. cbn [fst] in H. apply Z.eqb_neq in H. rewrite H. reflexivity. Qed.
Lemma a_remove_cons_eq : forall x r, a_remove (kv x :: r) (key x) = r.
Proof. intros. cbn [a_remove]. unfold keyf. destruct (kvf h x) as [kx vx]. cbn [fst]. rewrite Z.eqb_refl. reflexivity. Qed.
Lemma a_remove_cons_neq : forall x r k, key x <> k -> a_remove (kv x :: r) k = kv x :: a_remove r k.
Proof. intros x r k H. cbn [a_remove]. unfold keyf in H. destruct (kvf h x) as [kx vx]. cbn [fst] in H. apply Z.eqb_neq in H. rewrite H. reflexivity. Qed.
Lemma a_set_cons_eq : forall x r v, a_set (kv x :: r) (key x) v = (key x, v) :: r.
Proof. intros. cbn [a_set]. unfold keyf. destruct (kvf h x) as [kx vx]. cbn [fst]. rewrite Z.eqb_refl. reflexivity. Qed.
Lemma a_set_cons_neq : forall x r k v, key x <> k -> a_set (kv x :: r) k v = kv x :: a_set r k v.
Proof. intros x r k v H. cbn [a_set]. unfold keyf in H. destruct (kvf h x) as [kx vx]. cbn [fst] in H. apply Z.eqb_neq in H. rewrite H. reflexivity. Qed.

Lemma a_index_map_split : forall l1 e l2 i, (forall y, In y l1 -> key y <> key e) ->
  a_index (map kv (l1 ++ e :: l2)) (key e) i = Some (i + length l1).
Proof.
  induction l1 as [|x l1 IH]; intros e l2 i Hn.
  - cbn [app map length]. rewrite a_index_cons_eq. f_equal. lia.
  - cbn [app map length]. rewrite a_index_cons_neq by (apply Hn; left; reflexivity).
    rewrite IH by (intros y Hy; apply Hn; right; exact Hy). f_equal. lia.
Qed.

Lemma a_index_map_none : forall l k i, (forall e, In e l -> key e <> k) -> a_index (map kv l) k i = None.
Proof.
  induction l as [|x l IH]; intros k i H; [reflexivity|]. cbn [map].
  rewrite a_index_cons_neq by (apply H; left; reflexivity). apply IH. intros e He. apply H. right; exact He.
Qed.

Lemma a_remove_map_split : forall l1 e l2, (forall y, In y l1 -> key y <> key e) ->
  a_remove (map kv (l1 ++ e :: l2)) (key e) = map kv (l1 ++ l2).
Proof.
  induction l1 as [|x l1 IH]; intros e l2 Hn.
  - cbn [app map]. apply a_remove_cons_eq.
  - cbn [app map]. rewrite a_remove_cons_neq by (apply Hn; left; reflexivity).
    f_equal. apply IH. intros y Hy. apply Hn. right; exact Hy.
Qed.

Lemma a_remove_map_none : forall l k, (forall e, In e l -> key e <> k) -> a_remove (map kv l) k = map kv l.
Proof.
  induction l as [|x l IH]; intros k H; [reflexivity|]. cbn [map].
  rewrite a_remove_cons_neq by (apply H; left; reflexivity). f_equal. apply IH. intros e He. apply H. right; exact He.
Qed.

Lemma a_insert_at_map : forall l i x, a_insert_at (map kv l) i (kv x) = map kv (firstn i l ++ x :: skipn i l).
Proof. intros. unfold a_insert_at. rewrite map_app, firstn_map. cbn [map]. rewrite skipn_map. reflexivity. Qed.

Lemma keys_split_left : forall l1 e l2, NoDup (map key (l1 ++ e :: l2)) -> forall y, In y l1 -> key y <> key e.
Proof.
  intros l1 e l2 Hnd y Hy E. rewrite map_app in Hnd. cbn [map] in Hnd. apply NoDup_remove_2 in Hnd.
  apply Hnd. apply in_or_app. left. rewrite <- E. apply in_map. exact Hy.
Qed.

Lemma keys_split_right : forall l1 e l2, NoDup (map key (l1 ++ e :: l2)) -> forall y, In y l2 -> key y <> key e.
Proof.
  intros l1 e l2 Hnd y Hy E. rewrite map_app in Hnd. cbn [map] in Hnd. apply NoDup_remove_2 in Hnd.
  apply Hnd. apply in_or_app. right. rewrite <- E. apply in_map. exact Hy.
Qed.

Lemma keys_split_other : forall l1 e l2, NoDup (map key (l1 ++ e :: l2)) -> forall y, In y (l1 ++ l2) -> key y <> key e.
Proof.
  intros l1 e l2 Hnd y Hy. apply in_app_or in Hy. destruct Hy; [eapply keys_split_left|eapply keys_split_right]; eassumption.
Qed.

End A.

Lemma map_kvf_ext : forall h h' l, (forall y, In y l -> kvf h' y = kvf h y) -> map (kvf h') l = map (kvf h) l.
Proof. intros. apply map_ext_in. assumption. Qed.

Lemma a_set_map_split : forall h l1 e l2 v, (forall y, In y l1 -> keyf h y <> keyf h e) ->
  a_set (map (kvf h) (l1 ++ e :: l2)) (keyf h e) v = map (kvf h) l1 ++ (keyf h e, v) :: map (kvf h) l2.
Proof.
  intros h. induction l1 as [|x l1 IH]; intros e l2 v Hn.
  - cbn [app map]. apply a_set_cons_eq.
  - cbn [app map]. rewrite a_set_cons_neq by (apply Hn; left; reflexivity).
    f_equal. apply IH. intros y Hy. apply Hn. right; exact Hy.
Qed.
