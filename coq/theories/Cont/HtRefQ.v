(* C09 -- refinement of the read-only operations: every query of step1 computed through the links
   equals the ideal-map query on [abs]. *)
From Coq Require Import List Arith ZArith NArith PArith Bool Lia FMapPositive Permutation.
From Muscle Require Import Cont.HtModel Cont.HtStep Cont.HtIdeal Cont.HtLemmas Cont.HtRepr Cont.HtWalk Cont.HtIters
                           Cont.HtPut Cont.HtExact Cont.HtAbs Cont.HtRefTab.
Import ListNotations.

Lemma key_of_opt_live : forall h o, (forall e, o = Some e -> live h e) ->
  key_of_opt h o = option_map (keyf h) o.
Proof.
  intros h [e|] H; [|reflexivity]. cbn. apply key_of_keyf. apply H. reflexivity.
Qed.

Section Q.
Variables (h : ht) (l : list positive).
Hypothesis T : tinv h l.

Let L := ti_linked _ _ T.
Let Lall : forall y, In y l -> live h y := lk_live _ _ L.

Lemma q_contains : forall k, (match find_key h k with Some _ => true | None => false end) = is_some (a_get (abs h) k).
Proof.
  intros k. rewrite (find_key_get h l k T). destruct (find_key h k) as [e|] eqn:E; [|reflexivity].
  destruct (find_key_some_in h l k e T E) as [He _]. rewrite (val_of_valf h e (Lall e He)). reflexivity.
Qed.

Lemma a_index_found : forall l1 e l2, l = l1 ++ e :: l2 -> a_index (abs h) (keyf h e) 0 = Some (length l1).
Proof.
  intros l1 e l2 El. rewrite (tinv_abs h l T), El. apply (a_index_map_split h l1 e l2 0).
  apply (keys_split_left h l1 e l2). rewrite <- El. apply (ti_keys _ _ T).
Qed.

Lemma q_index_of_key : forall k,
  (match find_key h k with
   | Some e => if opt_pos_eqb (tl h) (Some e) then Some (cnt h - 1) else Some (length (walk_back h (get_prev h e) (cnt h)))
   | None => None end) = a_index (abs h) k 0.
Proof.
  intros k. destruct (find_key h k) as [e|] eqn:E.
  - destruct (find_key_split h l k e T E) as (l1 & l2 & El & Hk). subst k.
    rewrite (a_index_found l1 e l2 El), (ti_cnt _ _ T).
    destruct (opt_pos_eqb (tl h) (Some e)) eqn:Et.
    + apply opt_pos_eqb_true in Et. rewrite (lk_tl _ _ L), El, last_of_app_cons in Et.
      destruct l2 as [|x l2'].
      * rewrite El, app_length. cbn [length]. f_equal. lia.
      * exfalso. rewrite last_of_cons_cons in Et. apply last_of_in in Et.
        pose proof (lk_nodup _ _ L) as Hnd. rewrite El in Hnd. apply nodup_split_notin in Hnd. tauto.
    + rewrite (prev_of_prefix h l l1 e l2 L El). rewrite (walk_back_prefix h l L (length l) l1 (e :: l2) El).
      rewrite firstn_all2 by (rewrite rev_length, El, app_length; lia). rewrite rev_length. reflexivity.
  - rewrite (tinv_abs h l T). symmetry. apply a_index_map_none. apply find_id_none. rewrite <- (tinv_find_key h l k T). exact E.
Qed.

Lemma q_key_at : forall idx, key_of_opt h (entry_at h idx) = a_key_at (abs h) idx.
Proof.
  intros idx. rewrite (entry_at_linked h l idx L (ti_cnt _ _ T)), (tinv_abs h l T). unfold a_key_at. rewrite nth_error_map.
  destruct (nth_error l idx) as [e|] eqn:E; [|reflexivity]. cbn. apply key_of_keyf. apply Lall. eapply nth_error_In; eassumption.
Qed.

Lemma q_val_at : forall idx, (match entry_at h idx with Some e => val_of h e | None => None end) = a_val_at (abs h) idx.
Proof.
  intros idx. rewrite (entry_at_linked h l idx L (ti_cnt _ _ T)), (tinv_abs h l T). unfold a_val_at. rewrite nth_error_map.
  destruct (nth_error l idx) as [e|] eqn:E; [|reflexivity]. cbn. apply val_of_valf. apply Lall. eapply nth_error_In; eassumption.
Qed.

Lemma q_first_key : key_of_opt h (hd h) = a_key_at (abs h) 0.
Proof.
  rewrite (lk_hd _ _ L), (tinv_abs h l T). unfold a_key_at. destruct l as [|x l']; [reflexivity|]. cbn.
  apply key_of_keyf. apply Lall. left; reflexivity.
Qed.

Lemma q_last_key : key_of_opt h (tl h) = match last_opt (abs h) with Some kv => Some (fst kv) | None => None end.
Proof.
  rewrite (lk_tl _ _ L), (tinv_abs h l T), last_opt_map. fold (last_of l).
  destruct (last_of l) as [e|] eqn:E; [|reflexivity]. cbn. apply key_of_keyf. apply Lall. apply last_of_in. exact E.
Qed.

Lemma q_key_before : forall k,
  (match find_key h k with Some e => key_of_opt h (get_prev h e) | None => None end) =
  (match a_index (abs h) k 0 with Some (S i) => a_key_at (abs h) i | _ => None end).
Proof.
  intros k. destruct (find_key h k) as [e|] eqn:E.
  2:{ rewrite <- q_index_of_key, E. reflexivity. }
  destruct (find_key_split h l k e T E) as (l1 & l2 & El & <-).
  rewrite (a_index_found l1 e l2 El), (prev_of_prefix h l l1 e l2 L El).
  destruct (last_of l1) as [p|] eqn:EL.
  - destruct (last_of_split _ _ _ EL) as (l0 & ->). rewrite app_length. cbn [length]. replace (length l0 + 1) with (S (length l0)) by lia.
    rewrite (tinv_abs h l T), El. unfold a_key_at. rewrite nth_error_map.
    rewrite <- app_assoc. cbn [app]. rewrite nth_error_mid. cbn.
    apply key_of_keyf. apply Lall. rewrite El. apply in_or_app. left. apply in_elt.
  - apply last_of_none in EL. subst l1. reflexivity.
Qed.

Lemma q_key_after : forall k,
  (match find_key h k with Some e => key_of_opt h (get_next h e) | None => None end) =
  (match a_index (abs h) k 0 with Some i => a_key_at (abs h) (S i) | None => None end).
Proof.
  intros k. destruct (find_key h k) as [e|] eqn:E.
  2:{ rewrite <- q_index_of_key, E. reflexivity. }
  destruct (find_key_split h l k e T E) as (l1 & l2 & El & <-).
  rewrite (a_index_found l1 e l2 El), (next_of_suffix h l l1 e l2 L El).
  rewrite (tinv_abs h l T), El. unfold a_key_at. rewrite nth_error_map.
  replace (nth_error (l1 ++ e :: l2) (S (length l1))) with (head_opt l2).
  - destruct l2 as [|n l2']; [reflexivity|]. cbn. apply key_of_keyf. apply Lall. rewrite El. apply in_or_app. right. right. left. reflexivity.
  - rewrite nth_error_app2 by lia. replace (S (length l1) - length l1) with 1 by lia. destruct l2; reflexivity.
Qed.

End Q.

(* ------------------------------------------------------------------ IndexOfValue *)

Lemma scan_val_fwd_spec : forall h l v, linked h l -> forall fuel pre suf idx, l = pre ++ suf ->
  scan_val_fwd h v (head_opt suf) idx fuel = a_index_of_value (map (kvf h) (firstn fuel suf)) v idx.
Proof.
  intros h l v L. induction fuel as [|f IH]; intros pre suf idx E; [reflexivity|].
  destruct suf as [|x suf']; [reflexivity|]. cbn [head_opt scan_val_fwd firstn map a_index_of_value].
  assert (Lx : live h x) by (apply (lk_live _ _ L); subst l; apply in_elt).
  unfold live in Lx. destruct (getn h x) as [nd|] eqn:Ex; [|congruence].
  destruct (keyf_live _ _ _ Ex) as [Ek Ev]. rewrite (kvf_pair h x), Ev.
  destruct (Z.eqb (nv nd) v); [reflexivity|].
  assert (En : nnext nd = get_next h x) by (unfold get_next; rewrite Ex; reflexivity).
  rewrite En, (next_of_suffix h l pre x suf' L E). apply (IH (pre ++ [x])). rewrite <- app_assoc. exact E.
Qed.

Lemma scan_val_bwd_spec : forall h l v, linked h l -> forall fuel pre suf, l = pre ++ suf -> length pre <= fuel ->
  scan_val_bwd h v (last_of pre) (length pre) fuel =
  match a_index_of_value (map (kvf h) (rev pre)) v 0 with Some j => Some (length pre - 1 - j) | None => None end.
Proof.
  intros h l v L. induction fuel as [|f IH]; intros pre suf E Hf.
  - destruct pre; [reflexivity|cbn in Hf; lia].
  - destruct (last_of pre) as [x|] eqn:EL.
    + destruct (last_of_split _ _ _ EL) as (pre' & ->). rewrite rev_app_distr. cbn [rev app scan_val_bwd map a_index_of_value].
      assert (Lx : live h x) by (apply (lk_live _ _ L); subst l; apply in_or_app; left; apply in_elt).
      unfold live in Lx. destruct (getn h x) as [nd|] eqn:Ex; [|congruence].
      destruct (keyf_live _ _ _ Ex) as [Ek Ev]. rewrite (kvf_pair h x), Ev.
      rewrite app_length. cbn [length].
      destruct (Z.eqb (nv nd) v); [f_equal; lia|].
      assert (Ep : nprev nd = get_prev h x) by (unfold get_prev; rewrite Ex; reflexivity).
      rewrite <- app_assoc in E. cbn [app] in E. rewrite Ep, (prev_of_prefix h l pre' x suf L E).
      replace (length pre' + 1 - 1) with (length pre') by lia.
      rewrite (IH pre' (x :: suf) E) by (rewrite app_length in Hf; cbn in Hf; lia).
      (* shifting the start index of the ideal scan *)
      assert (Sh : forall (m : amap) i, a_index_of_value m v (S i) = option_map S (a_index_of_value m v i)).
      { induction m as [|[k' v'] m IHm]; intros i; [reflexivity|]. cbn [a_index_of_value]. destruct (Z.eqb v' v); [reflexivity|apply IHm]. }
      rewrite Sh. destruct (a_index_of_value (map (kvf h) (rev pre')) v 0) as [j|] eqn:Ej; cbn [option_map]; [|reflexivity].
      f_equal.
      assert (Hj : j < length pre').
      { clear - Ej. assert (G : forall (m : amap) i j0, a_index_of_value m v i = Some j0 -> j0 < i + length m).
        { induction m as [|[k' v'] m IHm]; intros i j0 H; [discriminate|]. cbn in H. destruct (Z.eqb v' v).
          - inversion H; subst. cbn. lia.
          - apply IHm in H. cbn. lia. }
        apply G in Ej. rewrite map_length, rev_length in Ej. lia. }
      symmetry. apply (Nat.sub_add_distr (length pre') 1 j).
    + apply last_of_none in EL. subst pre. reflexivity.
Qed.

Lemma q_index_of_value : forall h l v (bw : bool), tinv h l ->
  (if bw then scan_val_bwd h v (tl h) (cnt h) (cnt h) else scan_val_fwd h v (hd h) 0 (cnt h)) =
  (if bw then a_last_index_of_value (abs h) v else a_index_of_value (abs h) v 0).
Proof.
  intros h l v bw T. pose proof (ti_linked _ _ T) as L. rewrite (ti_cnt _ _ T), (tinv_abs h l T). destruct bw.
  - rewrite (lk_tl _ _ L). rewrite (scan_val_bwd_spec h l v L (length l) l [] (eq_sym (app_nil_r l)) (le_n _)).
    unfold a_last_index_of_value. rewrite map_rev, map_length. reflexivity.
  - rewrite (lk_hd _ _ L). rewrite (scan_val_fwd_spec h l v L (length l) [] l 0 eq_refl). rewrite firstn_all. reflexivity.
Qed.
