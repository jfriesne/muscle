(* C09 -- table-local invariant [TL] (one table together with the iterators it owns), the frame
   relation between iterator tables, and preservation by the primitives of HtModel. *)
From Coq Require Import List Arith ZArith NArith PArith Bool Lia FMapPositive Permutation.
From Muscle Require Import Cont.HtModel Cont.HtLemmas Cont.HtRepr Cont.HtWalk Cont.HtIters.
Import ListNotations.

Record TL (t : nat) (h : ht) (I : itab) : Prop := mkTL {
  tl_tinv : exists l, tinv h l;
  tl_nodup : NoDup (ilist h);
  tl_reg : forall i, In i (ilist h) -> exists it, geti I i = Some it /\ iown it = Some t /\ inoreg it = false;
  tl_own : forall i it, geti I i = Some it -> iown it = Some t ->
             (inoreg it = false -> In i (ilist h)) /\
             (forall c, icookie it = Some c -> inoreg it = false /\ live h c) }.

Record frame (t : nat) (I I' : itab) : Prop := mkFrame {
  fr_len : length I' = length I;
  fr_none : forall i, geti I i = None -> geti I' i = None;
  fr_other : forall i it, geti I i = Some it -> iown it <> Some t -> geti I' i = Some it;
  fr_mine : forall i it, geti I i = Some it -> iown it = Some t ->
              exists it', geti I' i = Some it' /\ (iown it' = Some t \/ (iown it' = None /\ icookie it' = None)) }.

Lemma frame_refl : forall t I, frame t I I.
Proof. intros. constructor; auto. intros i it H O. exists it. auto. Qed.

Lemma frame_trans : forall t A B C, frame t A B -> frame t B C -> frame t A C.
Proof.
  intros t A B C [L1 N1 O1 M1] [L2 N2 O2 M2]. constructor.
  - congruence.
  - auto.
  - intros i it H O. apply O2; auto.
  - intros i it H O. destruct (M1 i it H O) as (it' & H' & [O'|[O' C']]).
    + apply (M2 i it' H' O').
    + exists it'. split; [apply O2; [exact H'|congruence]|right; auto].
Qed.

Lemma linked_ext : forall h h' l, linked h l -> hd h' = hd h -> tl h' = tl h ->
  (forall y, In y l -> getn h' y = getn h y) -> linked h' l.
Proof.
  intros h h' l [Lhd Ltl Lnd Llive Lnext Lprev] Hh Ht Hg. constructor.
  - congruence.
  - congruence.
  - exact Lnd.
  - intros e He. unfold live. rewrite Hg by exact He. apply Llive; exact He.
  - intros e He. unfold get_next. rewrite Hg by exact He. apply Lnext; exact He.
  - intros e He. unfold get_prev. rewrite Hg by exact He. apply Lprev; exact He.
Qed.

(* the table invariant does not look at capacity, auto-sort flag or iterator list *)
Lemma tinv_same_nodes : forall h h' l, tinv h l -> nodes h' = nodes h -> hd h' = hd h -> tl h' = tl h ->
  cnt h' = cnt h -> fresh h' = fresh h -> tinv h' l.
Proof.
  intros h h' l [L C D F K] En Eh Et Ec Ef.
  assert (G : forall y, getn h' y = getn h y) by (intros; unfold getn; rewrite En; reflexivity).
  constructor.
  - apply (linked_ext h h' l L Eh Et). intros; apply G.
  - rewrite Ec. exact C.
  - intros e He. apply D. unfold live in *. rewrite <- G. exact He.
  - intros e He. rewrite Ef. apply F. unfold live in *. rewrite <- G. exact He.
  - rewrite (map_ext (keyf h') (keyf h)); [exact K|]. intros y. unfold keyf, kvf, kv_of. rewrite G. reflexivity.
Qed.

Lemma getn_remove : forall h e y, getn (with_nodes h (PositiveMap.remove e (nodes h))) y = if Pos.eqb y e then None else getn h y.
Proof.
  intros. unfold getn, with_nodes. cbn. destruct (Pos.eqb y e) eqn:E.
  - apply Pos.eqb_eq in E; subst. apply PositiveMap.grs.
  - apply Pos.eqb_neq in E. apply PositiveMap.gro. congruence.
Qed.

Lemma keyf_ext : forall h h' y, getn h' y = getn h y -> kvf h' y = kvf h y.
Proof. intros h h' y E. unfold kvf, kv_of. rewrite E. reflexivity. Qed.

(* ------------------------------------------------------------------ RemoveEntry *)

Lemma subseq_in_list : forall h l e bw c, linked h l -> In e l -> subseq h (Some e) bw = Some c -> In c l /\ c <> e.
Proof.
  intros h l e bw c L He H. cbn [subseq] in H. destruct bw.
  - rewrite (lk_prev _ _ L) in H by exact He.
    destruct (in_split _ _ He) as (l1 & l2 & ->). pose proof (lk_nodup _ _ L) as Hnd.
    destruct (nodup_split_notin _ _ _ Hnd) as [H1 H2]. rewrite prev_in_mid in H by exact H1.
    apply last_of_in in H. split; [apply in_or_app; left; exact H|intro; subst; contradiction].
  - rewrite (lk_next _ _ L) in H by exact He.
    destruct (in_split _ _ He) as (l1 & l2 & ->). pose proof (lk_nodup _ _ L) as Hnd.
    destruct (nodup_split_notin _ _ _ Hnd) as [H1 H2]. rewrite next_in_mid in H by exact H1.
    apply head_opt_in in H. split; [apply in_or_app; right; right; exact H|intro; subst; contradiction].
Qed.

Lemma patch_iter_own : forall h e it, iown (patch_iter h e it) = iown it /\ inoreg (patch_iter h e it) = inoreg it /\ ibw (patch_iter h e it) = ibw it.
Proof. intros. unfold patch_iter. destruct (opt_pos_eqb (icookie it) (Some e)); cbn; auto. Qed.

Lemma frame_map_its : forall t f L I,
  NoDup L ->
  (forall i it, In i L -> geti I i = Some it -> iown it = Some t) ->
  (forall it, iown it = Some t -> iown (f it) = Some t \/ (iown (f it) = None /\ icookie (f it) = None)) ->
  frame t I (map_its f L I).
Proof.
  intros t f L I Hnd Hown Hf. constructor.
  - apply map_its_length.
  - intros i H. destruct (in_dec Nat.eq_dec i L) as [Hin|Hn].
    + rewrite map_its_in by assumption. rewrite H. reflexivity.
    + rewrite map_its_notin by assumption. exact H.
  - intros i it H O. destruct (in_dec Nat.eq_dec i L) as [Hin|Hn].
    + exfalso. apply O. eapply Hown; eauto.
    + rewrite map_its_notin by assumption. exact H.
  - intros i it H O. destruct (in_dec Nat.eq_dec i L) as [Hin|Hn].
    + rewrite map_its_in by assumption. rewrite H. cbn. exists (f it). split; [reflexivity|apply Hf; exact O].
    + rewrite map_its_notin by assumption. exists it. auto.
Qed.

Lemma tinv_remove_entry : forall h l1 l2 e, tinv h (l1 ++ e :: l2) ->
  let h1 := unlink h e in
  let h' := with_cnt (with_nodes h1 (PositiveMap.remove e (nodes h1))) (cnt h1 - 1) in
  tinv h' (l1 ++ l2) /\ (forall y, y <> e -> getn h' y = getn h1 y) /\ ~ live h' e /\
  (forall y, y <> e -> kvf h' y = kvf h y) /\ (forall y, live h' y <-> (live h y /\ y <> e)) /\
  cap h' = cap h /\ fresh h' = fresh h /\ asort h' = asort h /\ ilist h' = ilist h.
Proof.
  intros h l1 l2 e T h1 h'.
  destruct (unlink_linked h l1 l2 e (ti_linked _ _ T)) as (L1 & S1 & M1 & _ & _). fold h1 in L1, S1, M1.
  destruct M1 as (Mc & Mcap & Mf & Ma & Mi).
  pose proof (tinv_nodup _ _ T) as Hnd. destruct (nodup_split_notin _ _ _ Hnd) as [Hn1 Hn2].
  assert (G : forall y, getn h' y = if Pos.eqb y e then None else getn h1 y).
  { intros y. unfold h'. rewrite getn_with_cnt. apply getn_remove. }
  assert (Gne : forall y, y <> e -> getn h' y = getn h1 y).
  { intros y Hy. rewrite G. apply Pos.eqb_neq in Hy. rewrite Hy. reflexivity. }
  assert (Lv : forall y, live h' y <-> (live h y /\ y <> e)).
  { intros y. unfold live at 1. rewrite G. destruct (Pos.eqb y e) eqn:E.
    - apply Pos.eqb_eq in E. split; [congruence|tauto].
    - apply Pos.eqb_neq in E. split.
      + intro H. split; [apply S1; exact H|exact E].
      + intros [H _]. apply S1. exact H. }
  assert (Kv : forall y, y <> e -> kvf h' y = kvf h y).
  { intros y Hy. rewrite (keyf_ext h1 h' y (Gne y Hy)). apply kvf_same_data. exact S1. }
  split; [|split; [exact Gne|split; [intro H; apply Lv in H; tauto|split; [exact Kv|split; [exact Lv|]]]]].
  - constructor.
    + apply (linked_ext h1 h' _ L1); try reflexivity.
      intros y Hy. apply Gne. intro; subst. apply in_app_or in Hy. tauto.
    + unfold h'. cbn [cnt with_cnt]. rewrite Mc, (ti_cnt _ _ T). rewrite !app_length. cbn [length]. lia.
    + intros y Hy. apply Lv in Hy. destruct Hy as [Hy Hne]. apply (ti_dom _ _ T) in Hy. eapply in_del; eassumption.
    + intros y Hy. apply Lv in Hy. destruct Hy as [Hy _]. apply (ti_fresh _ _ T) in Hy.
      unfold h'. cbn. rewrite Mf. exact Hy.
    + pose proof (ti_keys _ _ T) as Hk. rewrite map_app in Hk. cbn [map] in Hk.
      apply NoDup_remove_1 in Hk. rewrite <- map_app in Hk.
      rewrite (map_ext_in (keyf h') (keyf h)); [exact Hk|].
      intros y Hy. unfold keyf. rewrite Kv; [reflexivity|]. intro; subst. apply in_app_or in Hy. tauto.
  - unfold h'. cbn. auto.
Qed.

Lemma TL_same_I : forall t h h' I, TL t h I -> (exists l', tinv h' l') -> ilist h' = ilist h ->
  (forall c, live h c -> live h' c) -> TL t h' I.
Proof.
  intros t h h' I [HT Hnd Hreg Hown] HT' Hil Hl. constructor.
  - exact HT'.
  - rewrite Hil; exact Hnd.
  - rewrite Hil; exact Hreg.
  - rewrite Hil. intros i it Hg O. destruct (Hown i it Hg O) as [A B]. split; [exact A|].
    intros c Hc. destruct (B c Hc). split; [assumption|apply Hl; assumption].
Qed.

(* RemoveIterationEntry's iterator loop: every cookie that was e has moved on to a neighbour of e, so the
   table that follows need not keep e *)
Lemma TL_patch : forall t h h' I e l, TL t h I -> tinv h l -> In e l -> (exists l', tinv h' l') ->
  ilist h' = ilist h -> (forall c, live h c -> c <> e -> live h' c) ->
  TL t h' (patch_all h e I) /\ frame t I (patch_all h e I).
Proof.
  intros t h h' I e l [_ Hnd Hreg Hown] T He HT' Hil Hl.
  rewrite patch_all_eq.
  assert (Fr : frame t I (map_its (patch_iter h e) (ilist h) I)).
  { apply frame_map_its; [exact Hnd| |].
    - intros i it Hi Hg. destruct (Hreg i Hi) as (it0 & Hg0 & O & _). congruence.
    - intros it O. left. rewrite (proj1 (patch_iter_own h e it)). exact O. }
  split; [|exact Fr]. constructor.
  - exact HT'.
  - rewrite Hil; exact Hnd.
  - rewrite Hil. intros i Hi. destruct (Hreg i Hi) as (it & Hg & O & R).
    exists (patch_iter h e it). rewrite map_its_in by assumption. rewrite Hg. cbn.
    destruct (patch_iter_own h e it) as (A & B & _). split; [reflexivity|split; congruence].
  - rewrite Hil. intros i it' Hg' O'.
    destruct (in_dec Nat.eq_dec i (ilist h)) as [Hin|Hn].
    + rewrite map_its_in in Hg' by assumption. destruct (geti I i) as [it|] eqn:Hg; [|discriminate].
      cbn in Hg'. inversion Hg'; subst it'. clear Hg'.
      destruct (patch_iter_own h e it) as (A & B & _). rewrite A in O'.
      destruct (Hown i it Hg O') as [HR HC].
      split; [intros; exact Hin|].
      intros c Hc. rewrite B. unfold patch_iter in Hc.
      destruct (opt_pos_eqb (icookie it) (Some e)) eqn:Ec.
      * cbn in Hc. apply opt_pos_eqb_true in Ec. destruct (HC e Ec) as [R _]. split; [exact R|].
        rewrite Ec in Hc. destruct (subseq_in_list h _ e (ibw it) c (ti_linked _ _ T) He Hc) as [Hcl Hce].
        apply Hl; [apply (tinv_live _ _ T); exact Hcl|exact Hce].
      * destruct (HC c Hc) as [R Lc]. split; [exact R|apply Hl; [exact Lc|]].
        intros ->. apply opt_pos_eqb_false in Ec. congruence.
    + rewrite map_its_notin in Hg' by assumption. destruct (Hown i it' Hg' O') as [HR HC].
      split; [exact HR|]. intros c Hc. destruct (HC c Hc) as [R Lc]. exfalso. apply Hn. apply HR. exact R.
Qed.

Lemma remove_entry_TL : forall t h I e, TL t h I -> live h e ->
  let '(h', I') := remove_entry h I e in TL t h' I' /\ frame t I I'.
Proof.
  intros t h I e HTL Le. destruct (tl_tinv _ _ _ HTL) as (l & T).
  pose proof (ti_dom _ _ T e Le) as He. destruct (in_split _ _ He) as (l1 & l2 & ->).
  unfold remove_entry, remove_iter_entry.
  destruct (tinv_remove_entry h l1 l2 e T) as (T' & _ & _ & _ & Lv & _ & _ & _ & Hil).
  apply (TL_patch t h _ I e _ HTL T He); [eexists; exact T'|exact Hil|].
  intros c Hc Hne. apply Lv. split; assumption.
Qed.

(* ------------------------------------------------------------------ moving an entry: unlink + insert *)

Lemma tinv_same_data_perm : forall h h' l l', tinv h l -> linked h' l' -> Permutation l l' ->
  same_data h h' -> meta_eq h h' -> tinv h' l'.
Proof.
  intros h h' l l' T L' P [K Lv] (Mc & Mcap & Mf & Ma & Mi). constructor.
  - exact L'.
  - rewrite Mc, (ti_cnt _ _ T). apply Permutation_length. exact P.
  - intros e He. apply Lv in He. apply (ti_dom _ _ T) in He. eapply Permutation_in; eassumption.
  - intros e He. apply Lv in He. rewrite Mf. apply (ti_fresh _ _ T). exact He.
  - assert (E : map (keyf h') l' = map (keyf h) l').
    { apply map_ext. intros y. unfold keyf, kvf. rewrite K. reflexivity. }
    rewrite E. eapply Permutation_NoDup; [apply Permutation_map; exact P|apply (ti_keys _ _ T)].
Qed.

Lemma tinv_move : forall h l1 l2 m1 m2 e, tinv h (l1 ++ e :: l2) -> l1 ++ l2 = m1 ++ m2 ->
  let h' := insert_iter_entry (unlink h e) e (last_of m1) in
  tinv h' (m1 ++ e :: m2) /\ same_data h h' /\ meta_eq h h'.
Proof.
  intros h l1 l2 m1 m2 e T E h'.
  destruct (unlink_linked h l1 l2 e (ti_linked _ _ T)) as (L1 & S1 & M1 & _ & _).
  pose proof (tinv_nodup _ _ T) as Hnd. destruct (nodup_split_notin _ _ _ Hnd) as [Hn1 Hn2].
  assert (Le1 : live (unlink h e) e).
  { apply S1. apply (tinv_live _ _ T). apply in_elt. }
  rewrite E in L1.
  assert (Hne : ~ In e (m1 ++ m2)) by (rewrite <- E; intro H; apply in_app_or in H; tauto).
  destruct (insert_linked (unlink h e) m1 m2 e L1 Hne Le1) as (L2 & S2 & M2). fold h' in L2, S2, M2.
  destruct (only_links_trans _ _ _ (conj S1 M1) (conj S2 M2)) as [S M].
  split; [|split; assumption].
  eapply tinv_same_data_perm; try eassumption.
  apply Permutation_trans with (e :: l1 ++ l2).
  - apply Permutation_sym, Permutation_middle.
  - rewrite E. apply Permutation_middle.
Qed.

Lemma split_behind : forall (l : list positive) behind,
  (behind = None \/ exists b, behind = Some b /\ In b l) ->
  exists m1 m2, l = m1 ++ m2 /\ behind = last_of m1.
Proof.
  intros l behind [->|(b & -> & Hb)].
  - exists [], l. split; reflexivity.
  - destruct (in_split _ _ Hb) as (p & q & ->). exists (p ++ [b]), q. split.
    + rewrite <- app_assoc. reflexivity.
    + rewrite last_of_snoc. reflexivity.
Qed.


Lemma tinv_set_val : forall h l e v, tinv h l -> In e l ->
  tinv (set_val h e v) l /\ (forall y, live (set_val h e v) y <-> live h y) /\
  kvf (set_val h e v) e = (keyf h e, v) /\ (forall y, y <> e -> kvf (set_val h e v) y = kvf h y).
Proof.
  intros h l e v T He.
  assert (Le : live h e) by (apply (tinv_live _ _ T); exact He).
  assert (Kv : forall y, kvf (set_val h e v) y = if Pos.eqb y e then (keyf h e, v) else kvf h y).
  { intros y. unfold kvf at 1. rewrite kv_of_set_val. destruct (Pos.eqb y e); [|reflexivity].
    rewrite (kv_of_live h e Le). reflexivity. }
  split; [|split; [intro; apply live_set_val|split]].
  - destruct (ti_linked _ _ T) as [Lhd Ltl Lnd Llive Lnext Lprev]. constructor.
    + constructor.
      * rewrite hd_set_val; exact Lhd.
      * rewrite tl_set_val; exact Ltl.
      * exact Lnd.
      * intros y Hy. apply live_set_val. apply Llive; exact Hy.
      * intros y Hy. rewrite get_next_set_val. apply Lnext; exact Hy.
      * intros y Hy. rewrite get_prev_set_val. apply Lprev; exact Hy.
    + destruct (meta_set_val h e v) as (Mc & _). rewrite Mc. apply T.
    + intros y Hy. apply live_set_val in Hy. apply (ti_dom _ _ T); exact Hy.
    + intros y Hy. apply live_set_val in Hy. destruct (meta_set_val h e v) as (_ & _ & Mf & _). rewrite Mf. apply (ti_fresh _ _ T); exact Hy.
    + assert (E : map (keyf (set_val h e v)) l = map (keyf h) l).
      { apply map_ext. intros y. unfold keyf at 1. rewrite Kv. destruct (Pos.eqb y e) eqn:Ey; [|reflexivity].
        apply Pos.eqb_eq in Ey; subst. reflexivity. }
      rewrite E. apply T.
  - rewrite Kv, Pos.eqb_refl. reflexivity.
  - intros y Hy. rewrite Kv. apply Pos.eqb_neq in Hy. rewrite Hy. reflexivity.
Qed.

Lemma pos_lt_irrefl' : forall p : positive, ~ (p < p)%positive.
Proof. intros p. apply Pos.lt_irrefl. Qed.

Lemma tinv_insert_new : forall h l m1 m2 k v, tinv h l -> l = m1 ++ m2 -> find_id h k l = None ->
  let '(h1, e) := alloc_node h k v in
  let h' := with_cnt (insert_iter_entry h1 e (last_of m1)) (cnt (insert_iter_entry h1 e (last_of m1)) + 1) in
  e = fresh h /\ ~ In e l /\ tinv h' (m1 ++ e :: m2) /\ kvf h' e = (k, v) /\
  (forall y, y <> e -> kvf h' y = kvf h y) /\ (forall y, live h' y <-> (live h y \/ y = e)) /\
  cap h' = cap h /\ asort h' = asort h /\ ilist h' = ilist h.
Proof.
  intros h l m1 m2 k v T El Hf. unfold alloc_node.
  set (e := fresh h).
  set (h1 := mkHt (PositiveMap.add e (mkNode k v None None) (nodes h)) (hd h) (tl h) (cnt h) (cap h) (Pos.succ e) (asort h) (ilist h)).
  assert (Hnl : ~ live h e) by (intro H; apply (ti_fresh _ _ T) in H; apply (Pos.lt_irrefl _ H)).
  assert (Hne : ~ In e l) by (intro H; apply Hnl; apply (tinv_live _ _ T); exact H).
  assert (G1 : forall y, getn h1 y = if Pos.eqb y e then Some (mkNode k v None None) else getn h y).
  { intros y. unfold getn, h1. cbn. destruct (Pos.eqb y e) eqn:E.
    - apply Pos.eqb_eq in E; subst. apply PositiveMap.gss.
    - apply Pos.eqb_neq in E. apply PositiveMap.gso. exact E. }
  assert (L1 : linked h1 (m1 ++ m2)).
  { rewrite <- El. apply (linked_ext h h1 l (ti_linked _ _ T)); try reflexivity.
    intros y Hy. rewrite G1. assert (Pos.eqb y e = false) as -> by (apply Pos.eqb_neq; intro; subst; contradiction). reflexivity. }
  assert (Le1 : live h1 e) by (unfold live; rewrite G1, Pos.eqb_refl; discriminate).
  assert (Hne' : ~ In e (m1 ++ m2)) by (rewrite <- El; exact Hne).
  destruct (insert_linked h1 m1 m2 e L1 Hne' Le1) as (L2 & [K2 Lv2] & (Mc & Mcap & Mf & Ma & Mi)).
  set (h2 := insert_iter_entry h1 e (last_of m1)) in *.
  assert (Kv : forall y, kvf (with_cnt h2 (cnt h2 + 1)) y = if Pos.eqb y e then (k, v) else kvf h y).
  { intros y. unfold kvf. assert (E : kv_of (with_cnt h2 (cnt h2 + 1)) y = kv_of h1 y) by (rewrite <- K2; reflexivity).
    rewrite E. unfold kv_of. rewrite G1. destruct (Pos.eqb y e); reflexivity. }
  assert (Lv : forall y, live (with_cnt h2 (cnt h2 + 1)) y <-> (live h y \/ y = e)).
  { intros y. assert (E : live (with_cnt h2 (cnt h2 + 1)) y <-> live h1 y) by (rewrite <- Lv2; unfold live; tauto).
    rewrite E. unfold live. rewrite G1. destruct (Pos.eqb y e) eqn:Ey.
    - apply Pos.eqb_eq in Ey. split; [intros; right; exact Ey|discriminate].
    - apply Pos.eqb_neq in Ey. tauto. }
  split; [reflexivity|split; [exact Hne|split; [|split; [|split; [|split; [exact Lv|]]]]]].
  - constructor.
    + apply (linked_ext h2 _ _ L2); reflexivity.
    + cbn [cnt with_cnt]. rewrite Mc. unfold h1. cbn [cnt]. rewrite (ti_cnt _ _ T), El. rewrite !app_length. cbn [length]. lia.
    + intros y Hy. apply Lv in Hy. destruct Hy as [Hy| ->].
      * apply (ti_dom _ _ T) in Hy. rewrite El in Hy. apply in_ins. exact Hy.
      * apply in_elt.
    + intros y Hy. cbn [fresh with_cnt]. rewrite Mf. unfold h1. cbn [fresh]. apply Lv in Hy. destruct Hy as [Hy| ->].
      * apply (ti_fresh _ _ T) in Hy. fold e in Hy. lia.
      * lia.
    + assert (Kold : forall y, In y (m1 ++ m2) -> keyf (with_cnt h2 (cnt h2 + 1)) y = keyf h y).
      { intros y Hy. unfold keyf. rewrite Kv. destruct (Pos.eqb_spec y e) as [->|]; [contradiction|reflexivity]. }
      assert (E : map (keyf (with_cnt h2 (cnt h2 + 1))) (m1 ++ e :: m2) = map (keyf h) m1 ++ k :: map (keyf h) m2).
      { rewrite map_app. cbn [map]. unfold keyf at 2. rewrite Kv, Pos.eqb_refl.
        f_equal; [|f_equal]; apply map_ext_in; intros y Hy; apply Kold; apply in_or_app; auto. }
      rewrite E. pose proof (ti_keys _ _ T) as Hk. rewrite El, map_app in Hk.
      apply NoDup_Add with (a := k) (l := map (keyf h) m1 ++ map (keyf h) m2).
      * apply Add_app.
      * split; [exact Hk|]. rewrite <- map_app, <- El. intro Hin. apply in_map_iff in Hin. destruct Hin as (y & Hy1 & Hy2).
        eapply find_id_none; eassumption.
  - rewrite Kv, Pos.eqb_refl. reflexivity.
  - intros y Hy. rewrite Kv. apply Pos.eqb_neq in Hy. rewrite Hy. reflexivity.
  - cbn. repeat split; assumption.
Qed.
