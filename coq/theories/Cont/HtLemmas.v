(* C09 -- base lemmas: list updates, the neighbour functions of a duplicate-free list (which is
   what a doubly linked list represents), and the node-map accessors of HtModel. *)
From Coq Require Import List Arith ZArith NArith PArith Bool Lia FMapPositive.
From Muscle Require Import Cont.HtModel.
Import ListNotations.

Lemma upd_nth_length : forall A (l : list A) i x, length (upd_nth l i x) = length l.
Proof.
  intros A l i x. unfold upd_nth. destruct (i <? length l) eqn:E; [|reflexivity].
  apply Nat.ltb_lt in E. rewrite app_length, firstn_length. cbn [length]. rewrite skipn_length. lia.
Qed.

Lemma nth_upd_nth_same : forall A (l : list A) i x d, i < length l -> nth i (upd_nth l i x) d = x.
Proof.
  intros A l i x d Hi. unfold upd_nth. apply Nat.ltb_lt in Hi as E. rewrite E.
  rewrite app_nth2; rewrite firstn_length, Nat.min_l by lia; [|lia].
  rewrite Nat.sub_diag. reflexivity.
Qed.

Lemma nth_upd_nth_other : forall A (l : list A) i j x d, i <> j -> nth j (upd_nth l i x) d = nth j l d.
Proof.
  intros A l i j x d Hij. unfold upd_nth. destruct (i <? length l) eqn:E; [|reflexivity].
  apply Nat.ltb_lt in E.
  rewrite <- (firstn_skipn i l) at 3.
  destruct (Nat.lt_ge_cases j i) as [Hlt|Hge].
  - rewrite !app_nth1; rewrite ?firstn_length; try lia. reflexivity.
  - rewrite !app_nth2; rewrite ?firstn_length, ?Nat.min_l; try lia.
    assert (Hs : skipn i l = nth i l d :: skipn (S i) l).
    { clear - E. revert i E. induction l as [|a l IH]; intros i E; cbn in E; [lia|].
      destruct i; [reflexivity|]. cbn [skipn nth]. apply IH. lia. }
    rewrite Hs. destruct (j - i) as [|k] eqn:Ek; [lia|]. reflexivity.
Qed.

Definition last_of {A} (l : list A) : option A := head_opt (rev l).

Lemma last_of_app_cons : forall A (l : list A) x r, last_of (l ++ x :: r) = last_of (x :: r).
Proof.
  intros A l x r. unfold last_of. rewrite rev_app_distr.
  destruct (rev (x :: r)) as [|y s] eqn:E; [|reflexivity].
  apply (f_equal (@length A)) in E. rewrite rev_length in E. discriminate.
Qed.

Lemma last_of_snoc : forall A (l : list A) x, last_of (l ++ [x]) = Some x.
Proof. intros. unfold last_of. rewrite rev_app_distr. reflexivity. Qed.

Lemma last_of_nil : forall A, @last_of A [] = None.
Proof. reflexivity. Qed.

Lemma last_of_cons_cons : forall A (x y : A) r, last_of (x :: y :: r) = last_of (y :: r).
Proof. intros. apply (last_of_app_cons A [x] y r). Qed.

Lemma last_of_single : forall A (x : A), last_of [x] = Some x.
Proof. reflexivity. Qed.

Lemma last_of_app_nonnil : forall A (l r : list A), r <> [] -> last_of (l ++ r) = last_of r.
Proof. intros A l r H. destruct r; [congruence|]. apply last_of_app_cons. Qed.

Lemma last_of_in : forall A (l : list A) x, last_of l = Some x -> In x l.
Proof.
  intros A l x H. unfold last_of in H. destruct (rev l) as [|y s] eqn:E; [discriminate|].
  inversion H; subst. apply in_rev. rewrite E. left; reflexivity.
Qed.

Lemma head_opt_in : forall A (l : list A) x, head_opt l = Some x -> In x l.
Proof. intros A [|y l] x H; inversion H; subst. left; reflexivity. Qed.

Lemma last_of_split : forall A (l : list A) x, last_of l = Some x -> exists l', l = l' ++ [x].
Proof.
  intros A l x H. unfold last_of in H. destruct (rev l) as [|y s] eqn:E; [discriminate|].
  inversion H; subst. exists (rev s). rewrite <- (rev_involutive l), E. reflexivity.
Qed.

Lemma last_of_none : forall A (l : list A), last_of l = None -> l = [].
Proof.
  intros A l H. unfold last_of in H. destruct (rev l) eqn:E; [|discriminate].
  rewrite <- (rev_involutive l), E. reflexivity.
Qed.

Fixpoint next_in (l : list positive) (e : positive) : option positive :=
  match l with
  | [] => None
  | x :: r => if Pos.eqb x e then head_opt r else next_in r e
  end.

Fixpoint prev_from (p : option positive) (l : list positive) (e : positive) : option positive :=
  match l with
  | [] => None
  | x :: r => if Pos.eqb x e then p else prev_from (Some x) r e
  end.
Definition prev_in (l : list positive) (e : positive) : option positive := prev_from None l e.

Lemma next_in_mid : forall l1 e l2, ~ In e l1 -> next_in (l1 ++ e :: l2) e = head_opt l2.
Proof.
  induction l1 as [|x l1 IH]; intros e l2 Hn; cbn.
  - rewrite Pos.eqb_refl. reflexivity.
  - apply not_in_cons in Hn as [Hx Hn]. destruct (Pos.eqb_spec x e); [congruence|auto].
Qed.

Lemma prev_from_mid : forall l1 p e l2, ~ In e l1 ->
  prev_from p (l1 ++ e :: l2) e = match last_of l1 with Some y => Some y | None => p end.
Proof.
  induction l1 as [|x l1 IH]; intros p e l2 Hn; cbn.
  - rewrite Pos.eqb_refl. reflexivity.
  - apply not_in_cons in Hn as [Hx Hn]. destruct (Pos.eqb_spec x e); [congruence|]. rewrite IH by exact Hn.
    destruct l1 as [|y l1']; [reflexivity|]. rewrite last_of_cons_cons.
    destruct (last_of (y :: l1')) eqn:EL; [reflexivity|]. apply last_of_none in EL. discriminate.
Qed.

Lemma prev_in_mid : forall l1 e l2, ~ In e l1 -> prev_in (l1 ++ e :: l2) e = last_of l1.
Proof.
  intros. unfold prev_in. rewrite prev_from_mid by assumption. destruct (last_of l1); reflexivity.
Qed.

Lemma next_in_notin : forall l e, ~ In e l -> next_in l e = None.
Proof.
  induction l as [|x l IH]; intros e Hn; cbn; [reflexivity|].
  apply not_in_cons in Hn as [Hx Hn]. destruct (Pos.eqb_spec x e); [congruence|auto].
Qed.

Lemma prev_from_notin : forall l p e, ~ In e l -> prev_from p l e = None.
Proof.
  induction l as [|x l IH]; intros p e Hn; cbn; [reflexivity|].
  apply not_in_cons in Hn as [Hx Hn]. destruct (Pos.eqb_spec x e); [congruence|auto].
Qed.

Lemma prev_in_notin : forall l e, ~ In e l -> prev_in l e = None.
Proof. intros. apply prev_from_notin. assumption. Qed.

Lemma nodup_split_notin : forall (l1 : list positive) e l2, NoDup (l1 ++ e :: l2) -> ~ In e l1 /\ ~ In e l2.
Proof.
  intros l1 e l2 H. apply NoDup_remove_2 in H. split; intro Hin; apply H; apply in_or_app; auto.
Qed.

Lemma in_ins : forall A (l1 l2 : list A) e y, In y (l1 ++ l2) -> In y (l1 ++ e :: l2).
Proof. intros A l1 l2 e y. rewrite !in_app_iff. cbn. tauto. Qed.

Lemma in_del : forall A (l1 l2 : list A) e y, In y (l1 ++ e :: l2) -> y <> e -> In y (l1 ++ l2).
Proof. intros A l1 l2 e y H Hn. apply in_elt_inv in H. destruct H; [contradiction|assumption]. Qed.

Lemma nodup_app_l : forall (l1 l2 : list positive), NoDup (l1 ++ l2) -> NoDup l1.
Proof. induction l1; intros l2 H; [constructor|]. inversion H; subst. constructor; [intro; apply H2; apply in_or_app; auto|eauto]. Qed.
Lemma nodup_app_r : forall (l1 l2 : list positive), NoDup (l1 ++ l2) -> NoDup l2.
Proof. induction l1; intros l2 H; [exact H|]. inversion H; subst. eauto. Qed.

Lemma nodup_remove_mid : forall (l1 : list positive) e l2, NoDup (l1 ++ e :: l2) -> NoDup (l1 ++ l2).
Proof. intros. eapply NoDup_remove_1; eauto. Qed.

Lemma nodup_insert_mid : forall (l1 : list positive) e l2, NoDup (l1 ++ l2) -> ~ In e (l1 ++ l2) -> NoDup (l1 ++ e :: l2).
Proof.
  induction l1 as [|x l1 IH]; intros e l2 Hnd Hn; cbn in *.
  - constructor; assumption.
  - inversion Hnd; subst. constructor.
    + intro Hin. apply in_app_or in Hin. destruct Hin as [Hin|[Hin|Hin]].
      * apply H1. apply in_or_app; auto.
      * subst. apply Hn. left; reflexivity.
      * apply H1. apply in_or_app; auto.
    + apply IH; [assumption|]. intro Hin. apply Hn. right; exact Hin.
Qed.

(* neighbours after inserting e between l1 and l2 (equivalently: before removing it) *)
Lemma next_in_insert : forall l1 e l2 y, NoDup (l1 ++ e :: l2) ->
  next_in (l1 ++ e :: l2) y =
    if Pos.eqb y e then head_opt l2
    else if opt_pos_eqb (Some y) (last_of l1) then Some e
    else next_in (l1 ++ l2) y.
Proof.
  induction l1 as [|x l1 IH]; intros e l2 y Hnd.
  - cbn [app last_of rev head_opt opt_pos_eqb]. cbn [next_in]. rewrite (Pos.eqb_sym e y). destruct (Pos.eqb y e); reflexivity.
  - cbn [app] in *. inversion Hnd as [|? ? Hx Hnd']; subst.
    cbn [next_in]. destruct (Pos.eqb x y) eqn:Exy.
    + apply Pos.eqb_eq in Exy. subst y.
      assert (Hxe : Pos.eqb x e = false).
      { apply Pos.eqb_neq. intro; subst. apply Hx. apply in_elt. }
      rewrite Hxe. destruct l1 as [|z l1'].
      * cbn. rewrite Pos.eqb_refl. reflexivity.
      * cbn [app head_opt]. rewrite last_of_cons_cons.
        assert (Hz : opt_pos_eqb (Some x) (last_of (z :: l1')) = false).
        { destruct (last_of (z :: l1')) as [w|] eqn:EL; [|reflexivity]. cbn. apply Pos.eqb_neq. intro; subst w.
          apply last_of_in in EL. apply Hx. apply in_or_app. left; exact EL. }
        rewrite Hz. reflexivity.
    + rewrite IH by assumption. destruct (Pos.eqb y e); [reflexivity|].
      destruct l1 as [|z l1'].
      * cbn [last_of rev app head_opt opt_pos_eqb]. cbn. rewrite (Pos.eqb_sym y x), Exy. reflexivity.
      * rewrite last_of_cons_cons. reflexivity.
Qed.

Lemma prev_from_insert : forall l1 p e l2 y, NoDup (l1 ++ e :: l2) ->
  prev_from p (l1 ++ e :: l2) y =
    if Pos.eqb y e then (match last_of l1 with Some z => Some z | None => p end)
    else if opt_pos_eqb (Some y) (head_opt l2) then Some e
    else prev_from p (l1 ++ l2) y.
Proof.
  induction l1 as [|x l1 IH]; intros p e l2 y Hnd.
  - cbn [app last_of rev head_opt]. cbn [prev_from]. rewrite (Pos.eqb_sym e y). destruct (Pos.eqb y e) eqn:Eye; [reflexivity|].
    destruct l2 as [|z l2']; cbn [head_opt opt_pos_eqb prev_from]; [reflexivity|].
    rewrite (Pos.eqb_sym z y). destruct (Pos.eqb y z) eqn:Eyz; [reflexivity|]. reflexivity.
  - cbn [app] in *. inversion Hnd as [|? ? Hx Hnd']; subst.
    cbn [prev_from]. destruct (Pos.eqb x y) eqn:Exy.
    + apply Pos.eqb_eq in Exy. subst y.
      assert (Hxe : Pos.eqb x e = false).
      { apply Pos.eqb_neq. intro; subst. apply Hx. apply in_elt. }
      rewrite Hxe.
      assert (Hz : opt_pos_eqb (Some x) (head_opt l2) = false).
      { destruct l2 as [|w l2']; [reflexivity|]. cbn. apply Pos.eqb_neq. intro; subst w.
        apply Hx. apply in_or_app. right; right; left; reflexivity. }
      rewrite Hz. reflexivity.
    + rewrite IH by assumption. destruct (Pos.eqb y e); [|reflexivity].
      destruct l1 as [|z l1']; [reflexivity|]. rewrite last_of_cons_cons.
      destruct (last_of (z :: l1')) eqn:EL; [reflexivity|]. apply last_of_none in EL. discriminate.
Qed.

Lemma prev_in_insert : forall l1 e l2 y, NoDup (l1 ++ e :: l2) ->
  prev_in (l1 ++ e :: l2) y =
    if Pos.eqb y e then last_of l1
    else if opt_pos_eqb (Some y) (head_opt l2) then Some e
    else prev_in (l1 ++ l2) y.
Proof.
  intros. unfold prev_in. rewrite prev_from_insert by assumption.
  destruct (Pos.eqb y e); [destruct (last_of l1); reflexivity|reflexivity].
Qed.

Lemma next_in_in : forall l e y, next_in l e = Some y -> In y l /\ In e l.
Proof.
  induction l as [|x l IH]; intros e y H; cbn in H; [discriminate|].
  destruct (Pos.eqb x e) eqn:E.
  - apply Pos.eqb_eq in E; subst. apply head_opt_in in H. split; [right; exact H|left; reflexivity].
  - apply IH in H. destruct H. split; right; assumption.
Qed.

Lemma prev_from_in : forall l p e y, prev_from p l e = Some y -> (p = Some y \/ In y l) /\ In e l.
Proof.
  induction l as [|x l IH]; intros p e y H; cbn in H; [discriminate|].
  destruct (Pos.eqb x e) eqn:E.
  - apply Pos.eqb_eq in E; subst x. split; [left; exact H|left; reflexivity].
  - apply IH in H. destruct H as [[H|H] H2].
    + inversion H; subst. split; [right; left; reflexivity|right; exact H2].
    + split; [right; right; exact H|right; exact H2].
Qed.

Lemma prev_in_in : forall l e y, prev_in l e = Some y -> In y l /\ In e l.
Proof.
  intros l e y H. apply prev_from_in in H. destruct H as [[H|H] H2]; [discriminate|]. split; assumption.
Qed.

Lemma opt_pos_eqb_true : forall a b, opt_pos_eqb a b = true <-> a = b.
Proof.
  intros [x|] [y|]; cbn; split; intro H; try discriminate; try reflexivity.
  - apply Pos.eqb_eq in H. subst; reflexivity.
  - inversion H; subst. apply Pos.eqb_refl.
Qed.

Lemma opt_pos_eqb_false : forall a b, opt_pos_eqb a b = false <-> a <> b.
Proof.
  intros a b. split.
  - intros H E. apply opt_pos_eqb_true in E. congruence.
  - intros H. destruct (opt_pos_eqb a b) eqn:E; [|reflexivity]. apply opt_pos_eqb_true in E. contradiction.
Qed.

Lemma opt_pos_eqb_refl : forall a, opt_pos_eqb a a = true.
Proof. intros. apply opt_pos_eqb_true. reflexivity. Qed.

Lemma getn_setn_same : forall h e n, getn (setn h e n) e = Some n.
Proof. intros. unfold getn, setn, with_nodes. cbn. apply PositiveMap.gss. Qed.

Lemma getn_setn_other : forall h e n x, x <> e -> getn (setn h e n) x = getn h x.
Proof. intros. unfold getn, setn, with_nodes. cbn. apply PositiveMap.gso. assumption. Qed.

Lemma getn_with_hd : forall h x e, getn (with_hd h x) e = getn h e. Proof. reflexivity. Qed.
Lemma getn_with_tl : forall h x e, getn (with_tl h x) e = getn h e. Proof. reflexivity. Qed.
Lemma getn_with_cnt : forall h x e, getn (with_cnt h x) e = getn h e. Proof. reflexivity. Qed.
Lemma getn_with_cap : forall h x e, getn (with_cap h x) e = getn h e. Proof. reflexivity. Qed.
Lemma getn_with_asort : forall h x e, getn (with_asort h x) e = getn h e. Proof. reflexivity. Qed.
Lemma getn_with_ilist : forall h x e, getn (with_ilist h x) e = getn h e. Proof. reflexivity. Qed.
