(* C09 -- the representation predicate: "the links of table h form the doubly linked list l",
   and the correctness of the two list primitives InsertIterationEntry / RemoveIterationEntry
   (pointer surgery) with respect to list insertion / removal. *)
From Coq Require Import List Arith ZArith NArith PArith Bool Lia FMapPositive.
From Muscle Require Import Cont.HtModel Cont.HtLemmas.
Import ListNotations.

Definition live (h : ht) (e : positive) : Prop := getn h e <> None.

Lemma live_dec : forall h e, {live h e} + {getn h e = None}.
Proof. intros. unfold live. destruct (getn h e); [left; discriminate|right; reflexivity]. Qed.

(* set_prev, set_next and set_val rewrite the node at e and nothing else: one lookup fact for the three *)
Lemma getn_upd : forall (f : node -> node) h e y,
  getn (match getn h e with Some n => setn h e (f n) | None => h end) y
  = if Pos.eqb y e then option_map f (getn h e) else getn h y.
Proof.
  intros f h e y. destruct (Pos.eqb_spec y e) as [->|Hn]; destruct (getn h e) as [n|] eqn:E; cbn [option_map]; auto.
  - apply getn_setn_same.
  - apply getn_setn_other. exact Hn.
Qed.

Lemma getn_set_next : forall h e x y, getn (set_next h e x) y
  = if Pos.eqb y e then option_map (fun n => mkNode (nk n) (nv n) (nprev n) x) (getn h e) else getn h y.
Proof. intros. apply getn_upd. Qed.
Lemma getn_set_prev : forall h e x y, getn (set_prev h e x) y
  = if Pos.eqb y e then option_map (fun n => mkNode (nk n) (nv n) x (nnext n)) (getn h e) else getn h y.
Proof. intros. apply getn_upd. Qed.
Lemma getn_set_val : forall h e v y, getn (set_val h e v) y
  = if Pos.eqb y e then option_map (fun n => mkNode (nk n) v (nprev n) (nnext n)) (getn h e) else getn h y.
Proof. intros. apply getn_upd. Qed.

(* every accessor below is a function of [getn]; after the lookup is rewritten, what is left is the case
   y = e or not, node present or not *)
Ltac by_lookup :=
  intros; unfold get_next, get_prev, kv_of, live in *; rewrite ?getn_set_next, ?getn_set_prev, ?getn_set_val;
  match goal with |- context [Pos.eqb ?y ?e] => destruct (Pos.eqb_spec y e) as [->|]; [destruct (getn _ e)|] end;
  cbn; first [congruence | split; congruence].

Lemma get_next_set_next : forall h e x y, live h e ->
  get_next (set_next h e x) y = if Pos.eqb y e then x else get_next h y.
Proof. by_lookup. Qed.
Lemma get_prev_set_next : forall h e x y, get_prev (set_next h e x) y = get_prev h y.
Proof. by_lookup. Qed.
Lemma get_prev_set_prev : forall h e x y, live h e ->
  get_prev (set_prev h e x) y = if Pos.eqb y e then x else get_prev h y.
Proof. by_lookup. Qed.
Lemma get_next_set_prev : forall h e x y, get_next (set_prev h e x) y = get_next h y.
Proof. by_lookup. Qed.
Lemma kv_of_set_next : forall h e x y, kv_of (set_next h e x) y = kv_of h y.
Proof. by_lookup. Qed.
Lemma kv_of_set_prev : forall h e x y, kv_of (set_prev h e x) y = kv_of h y.
Proof. by_lookup. Qed.
Lemma live_set_next : forall h e x y, live (set_next h e x) y <-> live h y.
Proof. by_lookup. Qed.
Lemma live_set_prev : forall h e x y, live (set_prev h e x) y <-> live h y.
Proof. by_lookup. Qed.
Lemma live_set_val : forall h e v y, live (set_val h e v) y <-> live h y.
Proof. by_lookup. Qed.
Lemma get_next_set_val : forall h e v y, get_next (set_val h e v) y = get_next h y.
Proof. by_lookup. Qed.
Lemma get_prev_set_val : forall h e v y, get_prev (set_val h e v) y = get_prev h y.
Proof. by_lookup. Qed.
Lemma kv_of_set_val : forall h e v y,
  kv_of (set_val h e v) y = if Pos.eqb y e then (match kv_of h e with Some kv => Some (fst kv, v) | None => None end) else kv_of h y.
Proof. by_lookup. Qed.

(* the parts of a table that pointer writes never touch *)
Definition meta_eq (h h' : ht) : Prop :=
  cnt h' = cnt h /\ cap h' = cap h /\ fresh h' = fresh h /\ asort h' = asort h /\ ilist h' = ilist h.

Lemma meta_eq_refl : forall h, meta_eq h h.
Proof. intros. repeat split. Qed.
Lemma meta_eq_trans : forall a b c, meta_eq a b -> meta_eq b c -> meta_eq a c.
Proof. unfold meta_eq. intros a b c (A1&A2&A3&A4&A5) (B1&B2&B3&B4&B5). repeat split; congruence. Qed.

Lemma meta_set_next : forall h e x, meta_eq h (set_next h e x).
Proof. intros. unfold set_next. destruct (getn h e); repeat split. Qed.
Lemma meta_set_prev : forall h e x, meta_eq h (set_prev h e x).
Proof. intros. unfold set_prev. destruct (getn h e); repeat split. Qed.
Lemma meta_set_val : forall h e x, meta_eq h (set_val h e x).
Proof. intros. unfold set_val. destruct (getn h e); repeat split. Qed.

Lemma hd_set_next : forall h e x, hd (set_next h e x) = hd h.
Proof. intros. unfold set_next. destruct (getn h e); reflexivity. Qed.
Lemma hd_set_prev : forall h e x, hd (set_prev h e x) = hd h.
Proof. intros. unfold set_prev. destruct (getn h e); reflexivity. Qed.
Lemma tl_set_next : forall h e x, tl (set_next h e x) = tl h.
Proof. intros. unfold set_next. destruct (getn h e); reflexivity. Qed.
Lemma tl_set_prev : forall h e x, tl (set_prev h e x) = tl h.
Proof. intros. unfold set_prev. destruct (getn h e); reflexivity. Qed.
Lemma hd_set_val : forall h e x, hd (set_val h e x) = hd h.
Proof. intros. unfold set_val. destruct (getn h e); reflexivity. Qed.
Lemma tl_set_val : forall h e x, tl (set_val h e x) = tl h.
Proof. intros. unfold set_val. destruct (getn h e); reflexivity. Qed.

Record linked (h : ht) (l : list positive) : Prop := mkLinked {
  lk_hd : hd h = head_opt l;
  lk_tl : tl h = last_of l;
  lk_nodup : NoDup l;
  lk_live : forall e, In e l -> live h e;
  lk_next : forall e, In e l -> get_next h e = next_in l e;
  lk_prev : forall e, In e l -> get_prev h e = prev_in l e }.

(* same keys and values, same set of nodes *)
Definition same_data (h h' : ht) : Prop :=
  (forall y, kv_of h' y = kv_of h y) /\ (forall y, live h' y <-> live h y).

Lemma same_data_refl : forall h, same_data h h.
Proof. intros. split; intros; tauto. Qed.
Lemma same_data_trans : forall a b c, same_data a b -> same_data b c -> same_data a c.
Proof.
  intros a b c [A1 A2] [B1 B2]. split; intros y.
  - rewrite B1. apply A1.
  - rewrite B2. apply A2.
Qed.
Lemma same_data_set_next : forall h e x, same_data h (set_next h e x).
Proof. intros. split; intros; [apply kv_of_set_next|apply live_set_next]. Qed.
Lemma same_data_set_prev : forall h e x, same_data h (set_prev h e x).
Proof. intros. split; intros; [apply kv_of_set_prev|apply live_set_prev]. Qed.

(* what a sequence of pointer writes leaves alone: the nodes with their keys and values, and every field
   of the table but head and tail *)
Definition only_links (h h' : ht) : Prop := same_data h h' /\ meta_eq h h'.

Lemma only_links_refl : forall h, only_links h h.
Proof. split; [apply same_data_refl|apply meta_eq_refl]. Qed.
Lemma only_links_trans : forall a b c, only_links a b -> only_links b c -> only_links a c.
Proof. intros a b c [] []. split; [eapply same_data_trans|eapply meta_eq_trans]; eassumption. Qed.
Lemma ol_set_prev : forall h h1 e x, only_links h h1 -> only_links h (set_prev h1 e x).
Proof. intros h h1 e x []. split; [eapply same_data_trans; [|apply same_data_set_prev]|eapply meta_eq_trans; [|apply meta_set_prev]]; eassumption. Qed.
Lemma ol_set_next : forall h h1 e x, only_links h h1 -> only_links h (set_next h1 e x).
Proof. intros h h1 e x []. split; [eapply same_data_trans; [|apply same_data_set_next]|eapply meta_eq_trans; [|apply meta_set_next]]; eassumption. Qed.
Lemma ol_with_hd : forall h h1 x, only_links h h1 -> only_links h (with_hd h1 x).
Proof. intros h h1 x H. exact H. Qed.
Lemma ol_with_tl : forall h h1 x, only_links h h1 -> only_links h (with_tl h1 x).
Proof. intros h h1 x H. exact H. Qed.
#[global] Hint Resolve only_links_refl ol_set_prev ol_set_next ol_with_hd ol_with_tl : only_links.

Lemma insert_only_links : forall h e b, only_links h (insert_iter_entry h e b).
Proof.
  intros. unfold insert_iter_entry. cbv zeta.
  destruct (get_next _ e); (destruct (get_prev _ e); auto 6 with only_links).
Qed.

Lemma unlink_only_links : forall h e, only_links h (unlink h e).
Proof.
  intros. unfold unlink. cbv zeta.
  destruct (get_next h e), (get_prev h e), (opt_pos_eqb (hd h) (Some e));
    (destruct (opt_pos_eqb (tl _) (Some e)); auto 8 with only_links).
Qed.

(* ------------------------------------------------------------------ InsertIterationEntry *)

Lemma last_of_app_single_split : forall (l1 : list positive) b, last_of l1 = Some b -> exists l0, l1 = l0 ++ [b].
Proof. intros. apply last_of_split. assumption. Qed.

Lemma insert_linked : forall h l1 l2 e,
  linked h (l1 ++ l2) -> ~ In e (l1 ++ l2) -> live h e ->
  let h' := insert_iter_entry h e (last_of l1) in
  linked h' (l1 ++ e :: l2) /\ same_data h h' /\ meta_eq h h'.
Proof.
  intros h l1 l2 e L Hn Le h'.
  destruct L as [Lhd Ltl Lnd Llive Lnext Lprev].
  assert (Hnd' : NoDup (l1 ++ e :: l2)) by (apply nodup_insert_mid; assumption).
  (* the value read for the new entry's next link *)
  set (h1 := set_prev h e (last_of l1)).
  assert (Hnx : (match last_of l1 with Some b => get_next h1 b | None => hd h1 end) = head_opt l2).
  { destruct (last_of l1) as [b|] eqn:EL.
    - unfold h1. rewrite get_next_set_prev.
      destruct (last_of_split _ _ _ EL) as [l0 ->].
      rewrite Lnext by (apply in_or_app; left; apply in_elt).
      rewrite <- app_assoc. cbn [app]. apply next_in_mid.
      rewrite <- app_assoc in Lnd. cbn [app] in Lnd. apply nodup_split_notin in Lnd. tauto.
    - apply last_of_none in EL. subst l1. unfold h1. rewrite hd_set_prev. exact Lhd. }
  assert (Le1 : live h1 e) by (unfold h1; apply live_set_prev; exact Le).
  set (h2 := set_next h1 e (head_opt l2)).
  assert (Le2 : live h2 e) by (unfold h2; apply live_set_next; exact Le1).
  assert (Hp2 : get_prev h2 e = last_of l1).
  { unfold h2. rewrite get_prev_set_next. unfold h1. rewrite get_prev_set_prev by exact Le. rewrite Pos.eqb_refl. reflexivity. }
  set (h3 := match last_of l1 with Some p => set_next h2 p (Some e) | None => with_hd h2 (Some e) end).
  assert (Hne_last : forall p, last_of l1 = Some p -> p <> e).
  { intros p EL ->. apply Hn. apply in_or_app. left. apply last_of_in. exact EL. }
  assert (Hlive_last : forall p, last_of l1 = Some p -> live h2 p).
  { intros p EL. unfold h2, h1. apply live_set_next, live_set_prev. apply Llive. apply in_or_app. left. apply last_of_in; exact EL. }
  assert (Hn3 : get_next h3 e = head_opt l2).
  { unfold h3. destruct (last_of l1) as [p|] eqn:EL.
    - rewrite get_next_set_next by (apply Hlive_last; reflexivity).
      assert (Pos.eqb e p = false) as -> by (apply Pos.eqb_neq; intro; subst; eapply Hne_last; eauto).
      unfold h2. rewrite get_next_set_next by exact Le1. rewrite Pos.eqb_refl. reflexivity.
    - unfold with_hd, get_next, getn. cbn. fold (getn h2 e). fold (get_next h2 e).
      unfold h2. rewrite get_next_set_next by exact Le1. rewrite Pos.eqb_refl. reflexivity. }
  assert (Hh' : h' = match head_opt l2 with Some n => set_prev h3 n (Some e) | None => with_tl h3 (Some e) end).
  { unfold h', insert_iter_entry. fold h1. rewrite Hnx. fold h2. rewrite Hp2. fold h3. rewrite Hn3. reflexivity. }
  assert (Hne_head : forall n, head_opt l2 = Some n -> n <> e).
  { intros n EH ->. apply Hn. apply in_or_app. right. apply head_opt_in. exact EH. }
  assert (S3 : only_links h h3) by (unfold h3, h2, h1; destruct (last_of l1); auto with only_links).
  destruct S3 as [S3 _].
  destruct (insert_only_links h e (last_of l1)) as [S' M']. fold h' in S', M'.
  split; [|split; assumption].
  (* accessors of the final table *)
  assert (Hlive' : forall y, In y (l1 ++ e :: l2) -> live h' y).
  { intros y Hy. apply S'. apply in_elt_inv in Hy. destruct Hy as [->|Hy]; [exact Le|apply Llive; exact Hy]. }
  assert (Hlive3 : forall n, head_opt l2 = Some n -> live h3 n).
  { intros n EH. apply S3. apply Llive. apply in_or_app. right. apply head_opt_in; exact EH. }
  assert (Hnext' : forall y, get_next h' y = if Pos.eqb y e then head_opt l2
                              else if opt_pos_eqb (Some y) (last_of l1) then Some e else get_next h y).
  { intros y. assert (E3 : get_next h' y = get_next h3 y).
    { rewrite Hh'. destruct (head_opt l2); [apply get_next_set_prev|reflexivity]. }
    rewrite E3. unfold h3. destruct (last_of l1) as [p|] eqn:EL.
    - rewrite get_next_set_next by (apply Hlive_last; reflexivity).
      destruct (Pos.eqb y p) eqn:Eyp.
      + apply Pos.eqb_eq in Eyp. subst y.
        assert (Pos.eqb p e = false) as -> by (apply Pos.eqb_neq; eapply Hne_last; eauto).
        cbn. rewrite Pos.eqb_refl. reflexivity.
      + unfold h2. rewrite get_next_set_next by exact Le1. destruct (Pos.eqb y e); [reflexivity|].
        cbn. rewrite Eyp. unfold h1. apply get_next_set_prev.
    - assert (E2 : get_next (with_hd h2 (Some e)) y = get_next h2 y) by reflexivity.
      rewrite E2. unfold h2. rewrite get_next_set_next by exact Le1. destruct (Pos.eqb y e); [reflexivity|].
      cbn. unfold h1. apply get_next_set_prev. }
  assert (Hprev' : forall y, get_prev h' y = if Pos.eqb y e then last_of l1
                              else if opt_pos_eqb (Some y) (head_opt l2) then Some e else get_prev h y).
  { intros y.
    assert (E3 : get_prev h3 y = if Pos.eqb y e then last_of l1 else get_prev h y).
    { assert (E32 : get_prev h3 y = get_prev h2 y).
      { unfold h3. destruct (last_of l1); [apply get_prev_set_next|reflexivity]. }
      rewrite E32. unfold h2. rewrite get_prev_set_next. unfold h1. apply get_prev_set_prev. exact Le. }
    rewrite Hh'. destruct (head_opt l2) as [n|] eqn:EH.
    - rewrite get_prev_set_prev by (apply Hlive3; reflexivity).
      destruct (Pos.eqb y n) eqn:Eyn.
      + apply Pos.eqb_eq in Eyn. subst y.
        assert (Pos.eqb n e = false) as -> by (apply Pos.eqb_neq; eapply Hne_head; eauto).
        cbn. rewrite Pos.eqb_refl. reflexivity.
      + rewrite E3. destruct (Pos.eqb y e); [reflexivity|]. cbn. rewrite Eyn. reflexivity.
    - assert (E4 : get_prev (with_tl h3 (Some e)) y = get_prev h3 y) by reflexivity.
      rewrite E4, E3. destruct (Pos.eqb y e); reflexivity. }
  constructor.
  - rewrite Hh'.
    assert (E : hd (match head_opt l2 with Some n => set_prev h3 n (Some e) | None => with_tl h3 (Some e) end) = hd h3).
    { destruct (head_opt l2); [apply hd_set_prev|reflexivity]. }
    rewrite E. unfold h3. destruct (last_of l1) as [p|] eqn:EL.
    + rewrite hd_set_next. unfold h2. rewrite hd_set_next. unfold h1. rewrite hd_set_prev. rewrite Lhd.
      destruct l1; [discriminate|reflexivity].
    + apply last_of_none in EL. subst l1. reflexivity.
  - rewrite last_of_app_cons. rewrite Hh'. destruct l2 as [|n l2'].
    + cbn [head_opt]. reflexivity.
    + cbn [head_opt]. rewrite tl_set_prev.
      assert (E : tl h3 = tl h).
      { unfold h3. destruct (last_of l1); [rewrite tl_set_next|cbn [tl with_hd]];
          unfold h2; rewrite tl_set_next; unfold h1; apply tl_set_prev. }
      rewrite E, Ltl. rewrite last_of_app_cons. rewrite last_of_cons_cons. reflexivity.
  - exact Hnd'.
  - exact Hlive'.
  - intros y Hy. rewrite Hnext', next_in_insert by exact Hnd'.
    destruct (Pos.eqb y e) eqn:Eye; [reflexivity|].
    destruct (opt_pos_eqb (Some y) (last_of l1)); [reflexivity|].
    apply Lnext. apply Pos.eqb_neq in Eye. eapply in_del; eassumption.
  - intros y Hy. rewrite Hprev', prev_in_insert by exact Hnd'.
    destruct (Pos.eqb y e) eqn:Eye; [reflexivity|].
    destruct (opt_pos_eqb (Some y) (head_opt l2)); [reflexivity|].
    apply Lprev. apply Pos.eqb_neq in Eye. eapply in_del; eassumption.
Qed.

(* ------------------------------------------------------------------ RemoveIterationEntry (links) *)

Lemma unlink_linked : forall h l1 l2 e,
  linked h (l1 ++ e :: l2) ->
  let h' := unlink h e in
  linked h' (l1 ++ l2) /\ same_data h h' /\ meta_eq h h' /\ get_prev h' e = None /\ get_next h' e = None.
Proof.
  intros h l1 l2 e L h'.
  destruct L as [Lhd Ltl Lnd Llive Lnext Lprev].
  destruct (nodup_split_notin _ _ _ Lnd) as [Hn1 Hn2].
  assert (Hin : In e (l1 ++ e :: l2)) by (apply in_elt).
  assert (Le : live h e) by (apply Llive; exact Hin).
  assert (Hp : get_prev h e = last_of l1) by (rewrite Lprev by exact Hin; apply prev_in_mid; exact Hn1).
  assert (Hx : get_next h e = head_opt l2) by (rewrite Lnext by exact Hin; apply next_in_mid; exact Hn1).
  set (h1 := if opt_pos_eqb (hd h) (Some e) then with_hd h (head_opt l2) else h).
  set (h2 := if opt_pos_eqb (tl h1) (Some e) then with_tl h1 (last_of l1) else h1).
  set (h3 := match last_of l1 with Some pp => set_next h2 pp (head_opt l2) | None => h2 end).
  set (h4 := match head_opt l2 with Some nn => set_prev h3 nn (last_of l1) | None => h3 end).
  assert (Hh' : h' = set_next (set_prev h4 e None) e None).
  { unfold h', unlink. rewrite Hp, Hx. reflexivity. }
  assert (T1 : tl h1 = tl h) by (unfold h1; destruct (opt_pos_eqb (hd h) (Some e)); reflexivity).
  assert (S2 : same_data h h2 /\ (forall y, getn h2 y = getn h y) /\ hd h2 = hd h1).
  { unfold h2, h1. destruct (opt_pos_eqb (hd h) (Some e)), (opt_pos_eqb (tl _) (Some e)); repeat split; intros; tauto. }
  destruct S2 as (S2 & G2 & H2).
  assert (N2 : forall y, get_next h2 y = get_next h y) by (intros; unfold get_next; rewrite G2; reflexivity).
  assert (P2 : forall y, get_prev h2 y = get_prev h y) by (intros; unfold get_prev; rewrite G2; reflexivity).
  assert (Hlast_ne : forall p, last_of l1 = Some p -> p <> e) by (intros p EL ->; apply Hn1; apply last_of_in; exact EL).
  assert (Hhead_ne : forall n, head_opt l2 = Some n -> n <> e) by (intros n EH ->; apply Hn2; apply head_opt_in; exact EH).
  assert (Hlast_live : forall p, last_of l1 = Some p -> live h p).
  { intros p EL. apply Llive. apply in_or_app. left. apply last_of_in; exact EL. }
  assert (Hhead_live : forall n, head_opt l2 = Some n -> live h n).
  { intros n EH. apply Llive. apply in_or_app. right. right. apply head_opt_in; exact EH. }
  assert (S3 : same_data h h3).
  { unfold h3. destruct (last_of l1); [eapply same_data_trans; [exact S2|apply same_data_set_next]|exact S2]. }
  assert (S4 : same_data h h4).
  { unfold h4. destruct (head_opt l2); [eapply same_data_trans; [exact S3|apply same_data_set_prev]|exact S3]. }
  destruct (unlink_only_links h e) as [S' M']. fold h' in S', M'.
  assert (Le4 : live h4 e) by (apply S4; exact Le).
  assert (Le5 : live (set_prev h4 e None) e) by (apply live_set_prev; exact Le4).
  assert (N3 : forall y, get_next h3 y = if opt_pos_eqb (Some y) (last_of l1) then head_opt l2 else get_next h y).
  { intros y. unfold h3. destruct (last_of l1) as [p|] eqn:EL.
    - rewrite get_next_set_next by (apply S2; apply Hlast_live; reflexivity). cbn.
      destruct (Pos.eqb y p); [reflexivity|apply N2].
    - cbn. apply N2. }
  assert (P3 : forall y, get_prev h3 y = get_prev h y).
  { intros y. unfold h3. destruct (last_of l1); [rewrite get_prev_set_next|]; apply P2. }
  assert (N4 : forall y, get_next h4 y = get_next h3 y).
  { intros y. unfold h4. destruct (head_opt l2); [apply get_next_set_prev|reflexivity]. }
  assert (P4 : forall y, get_prev h4 y = if opt_pos_eqb (Some y) (head_opt l2) then last_of l1 else get_prev h y).
  { intros y. unfold h4. destruct (head_opt l2) as [n|] eqn:EH.
    - rewrite get_prev_set_prev by (apply S3; apply Hhead_live; reflexivity). cbn.
      destruct (Pos.eqb y n); [reflexivity|apply P3].
    - cbn. apply P3. }
  assert (N' : forall y, get_next h' y = if Pos.eqb y e then None else get_next h4 y).
  { intros y. rewrite Hh'. rewrite get_next_set_next by exact Le5. destruct (Pos.eqb y e); [reflexivity|apply get_next_set_prev]. }
  assert (P' : forall y, get_prev h' y = if Pos.eqb y e then None else get_prev h4 y).
  { intros y. rewrite Hh'. rewrite get_prev_set_next. apply get_prev_set_prev. exact Le4. }
  split; [|split; [exact S'|split; [exact M'|split]]].
  - assert (Hnd' : NoDup (l1 ++ l2)) by (eapply nodup_remove_mid; eassumption).
    assert (Hne : forall y, In y (l1 ++ l2) -> Pos.eqb y e = false).
    { intros y Hy. apply Pos.eqb_neq. intros ->. apply in_app_or in Hy. tauto. }
    constructor.
    + assert (E : hd h' = hd h2).
      { rewrite Hh'. rewrite hd_set_next, hd_set_prev. unfold h4. destruct (head_opt l2); [rewrite hd_set_prev|];
          unfold h3; destruct (last_of l1); try rewrite hd_set_next; reflexivity. }
      rewrite E, H2. unfold h1. rewrite Lhd. destruct l1 as [|x l1'].
      * cbn [app head_opt]. rewrite opt_pos_eqb_refl. reflexivity.
      * cbn [app head_opt].
        assert (opt_pos_eqb (Some x) (Some e) = false) as ->.
        { apply opt_pos_eqb_false. intro H; inversion H; subst. apply Hn1. left; reflexivity. }
        exact Lhd.
    + assert (E : tl h' = tl h2).
      { rewrite Hh'. rewrite tl_set_next, tl_set_prev. unfold h4. destruct (head_opt l2); [rewrite tl_set_prev|];
          unfold h3; destruct (last_of l1); try rewrite tl_set_next; reflexivity. }
      rewrite E. unfold h2. rewrite T1, Ltl, last_of_app_cons. destruct l2 as [|x l2'].
      * rewrite last_of_single, opt_pos_eqb_refl. rewrite app_nil_r. reflexivity.
      * rewrite last_of_cons_cons.
        assert (opt_pos_eqb (last_of (x :: l2')) (Some e) = false) as ->.
        { apply opt_pos_eqb_false. intro H. apply last_of_in in H. apply Hn2. exact H. }
        rewrite T1, Ltl, last_of_app_cons, last_of_cons_cons. rewrite last_of_app_cons. reflexivity.
    + exact Hnd'.
    + intros y Hy. apply S'. apply Llive. apply in_ins. exact Hy.
    + intros y Hy.
      rewrite N', (Hne y Hy), N4, N3.
      destruct (opt_pos_eqb (Some y) (last_of l1)) eqn:EL.
      * apply opt_pos_eqb_true in EL. symmetry in EL. destruct (last_of_split _ _ _ EL) as [l0 ->].
        rewrite <- app_assoc. cbn [app]. symmetry. apply next_in_mid.
        intro Hin0. rewrite <- app_assoc in Hnd'. cbn [app] in Hnd'. apply nodup_split_notin in Hnd'. tauto.
      * rewrite Lnext by (apply in_ins; exact Hy). rewrite next_in_insert by exact Lnd. rewrite (Hne y Hy), EL. reflexivity.
    + intros y Hy.
      rewrite P', (Hne y Hy), P4.
      destruct (opt_pos_eqb (Some y) (head_opt l2)) eqn:EH.
      * apply opt_pos_eqb_true in EH. destruct l2 as [|x l2']; [discriminate|]. inversion EH; subst x.
        symmetry. apply prev_in_mid. intro Hin1. apply nodup_split_notin in Hnd'. tauto.
      * rewrite Lprev by (apply in_ins; exact Hy). rewrite prev_in_insert by exact Lnd. rewrite (Hne y Hy), EH. reflexivity.
  - rewrite P', Pos.eqb_refl. reflexivity.
  - rewrite N', Pos.eqb_refl. reflexivity.
Qed.
