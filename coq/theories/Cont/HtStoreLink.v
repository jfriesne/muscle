(* C09 -- the storage layer and the ordered-map models say the same about Put / Get / Remove /
   EnsureSize: the ideal finite map that the storage model refines (HtStoreProofs.v) is the lookup
   function of the L0 association list, which the L1 model refines (HtRefine.v). *)
From Coq Require Import List Arith ZArith NArith Lia Permutation.
From Muscle Require Import Cont.HtModel Cont.HtStep Cont.HtIdeal Cont.HtLemmas Cont.HtIdealLaws
                           Cont.HtRefine Cont.HtStore Cont.HtStoreProofs.
Import ListNotations.

Definition op_of_sop (o : sop) : op :=
  match o with
  | SPut k v => OPut 0 k v
  | SGet k => OGet 0 k
  | SRemove k => ORemove 0 k
  | SGrow n => OEnsure 0 (N.of_nat n) false
  end.

(* the value an operation returns (previous value of Put, value of Get, removed value of Remove) *)
Definition out_val (o : out) : option Z := match o with OVal v => v | _ => None end.

Lemma nodup_a_remove : forall (l : amap) k, NoDup (map fst l) -> NoDup (map fst (a_remove l k)).
Proof.
  induction l as [|[k' v] r IH]; intros k H; [constructor|]. cbn [a_remove]. cbn [map fst] in H. inversion H as [|? ? Hn Hr]; subst.
  destruct (Z.eqb k' k); [exact Hr|]. cbn [map fst]. constructor; [|apply IH; exact Hr].
  intro Hin. apply Hn. clear -Hin. induction r as [|[k2 v2] r IH]; [destruct Hin|]. cbn [a_remove] in Hin.
  destruct (Z.eqb k2 k); [right; exact Hin|]. cbn [map fst] in *. destruct Hin as [E|Hin]; [left; exact E|right; apply IH; exact Hin].
Qed.

Section Link.
Variable var : variant.
Variable dcap : N.

Lemma nodup_l0_put : forall x k v, NoDup (map fst (pairs x)) -> NoDup (map fst (pairs (fst (l0_put var dcap x k v)))).
Proof.
  intros x k v Hnd. pose proof (l0_put_perm var dcap x k v) as P.
  eapply Permutation_NoDup; [apply Permutation_map; exact P|].
  destruct (a_get (pairs x) k) as [old|] eqn:Eg; [rewrite keys_a_set; exact Hnd|].
  cbn [map fst]. constructor; [apply a_get_none_notin; exact Eg|exact Hnd].
Qed.

Lemma l0_put_old : forall x k v, snd (l0_put var dcap x k v) = a_get (pairs x) k.
Proof.
  intros x0 k v. unfold l0_put.
  assert (Ep : pairs (if N.eqb (acap x0) 0 then mkT0 (pairs x0) dcap (aasort x0) else x0) = pairs x0) by (destruct (N.eqb (acap x0) 0); reflexivity).
  rewrite Ep. destruct (a_get (pairs x0) k); reflexivity.
Qed.

(* one table of any class: the ideal finite map and the L0 model return the same values *)
Theorem fm_matches_l0 : forall ops (w0 : world0) f, 0 < length w0 ->
  NoDup (map fst (pairs (gett0 w0 0))) -> (forall k, f k = a_get (pairs (gett0 w0 0)) k) ->
  fm_run f ops = map out_val (outs0 var dcap w0 (map op_of_sop ops)).
Proof.
  induction ops as [|o r IH]; intros w0 f Hl Hnd Hf; [reflexivity|].
  assert (V : valid_t0 w0 0 = true) by (apply Nat.ltb_lt; exact Hl).
  cbn [fm_run map outs0].
  assert (G : forall x, gett0 (sett0 w0 0 x) 0 = x) by (intros x; unfold gett0, sett0; apply nth_upd_nth_same; exact Hl).
  assert (L : forall x, 0 < length (sett0 w0 0 x)) by (intros x; unfold sett0; rewrite upd_nth_length; exact Hl).
  destruct o as [k v|k|k|n]; cbn [fm_step op_of_sop step0]; rewrite ?V.
  - (* Put *) rewrite (surjective_pairing (l0_put var dcap (gett0 w0 0) k v)). cbn [fst snd map out_val].
    rewrite l0_put_old, <- Hf. f_equal. apply IH; [apply L|rewrite G; apply nodup_l0_put; exact Hnd|].
    intros k'. rewrite G. destruct (Z.eqb k' k) eqn:E.
    + apply Z.eqb_eq in E. subst k'. symmetry. apply l0_put_get_same. exact Hnd.
    + apply Z.eqb_neq in E. rewrite (l0_put_get_other var dcap _ k v k' Hnd E). apply Hf.
  - (* Get *) cbn [fst snd map out_val]. rewrite <- Hf. f_equal. apply IH; assumption.
  - (* Remove *) rewrite <- Hf. destruct (f k) as [v|] eqn:Ek; cbn [fst snd map out_val]; f_equal.
    + apply IH; [apply L|rewrite G; cbn [pairs with_pairs]; apply nodup_a_remove; exact Hnd|].
      intros k'. rewrite G. cbn [pairs with_pairs]. destruct (Z.eqb k' k) eqn:E.
      * apply Z.eqb_eq in E. subst k'. symmetry. apply a_remove_get_same. exact Hnd.
      * apply Z.eqb_neq in E. rewrite (a_remove_get_other _ k k' E). apply Hf.
    + apply IH; [exact Hl|exact Hnd|]. intros k'. destruct (Z.eqb k' k) eqn:E; [|apply Hf].
      apply Z.eqb_eq in E. subst k'. rewrite <- Hf. symmetry. exact Ek.
  - (* EnsureSize *) rewrite (surjective_pairing (l0_ensure dcap (gett0 w0 0) (N.of_nat n) false)). cbn [fst snd map out_val]. f_equal.
    apply IH; [apply L|rewrite G, l0_ensure_pairs; exact Hnd|]. intros k'. rewrite G, l0_ensure_pairs. apply Hf.
Qed.

Lemma sop_not_iter : forall ops, Forall (fun o => is_iter_op o = false) (map op_of_sop ops).
Proof. induction ops as [|o r IH]; constructor; [destruct o; reflexivity|exact IH]. Qed.

(* ... and so does the L1 model (one table, any number of iterators around) *)
Theorem fm_matches_l1 : forall ni ops,
  fm_run (fun _ => None) ops = map out_val (outs1 var dcap (init_world dcap 1 ni) (map op_of_sop ops)).
Proof.
  intros ni ops. destruct (init_refines var dcap 1 ni (map op_of_sop ops)) as [_ B]. rewrite (B (sop_not_iter ops)).
  apply fm_matches_l0; [cbn; lia|cbn; constructor|intros k; reflexivity].
Qed.

(* the storage layer -- slot array, bucket chains, MAP_TO/MAPPED_FROM, free list, rebuild on growth --
   returns, for every sequence of Put / Get / Remove / EnsureSize and every hash function, the values
   the L1 iteration-list model returns *)
Theorem storage_refines_l1 : forall (hashf : Z -> N) n ni ops, 0 < n ->
  st_run hashf (mkRun (st_create n) []) ops =
  map out_val (outs1 var dcap (init_world dcap 1 ni) (map op_of_sop ops)).
Proof. intros hashf n ni ops Hn. rewrite (st_run_correct hashf n ops Hn). apply fm_matches_l1. Qed.

End Link.
