(* C16 -- the refinement theorems: every operation of the code-shaped Queue model (L1) preserves
   the representation invariant and refines the ideal sequence (L0), with equal results; lifted
   to all operation lists; no-stale-items corollaries. *)
From Coq Require Import List Arith ZArith NArith Bool Lia ZifyBool.
From Muscle Require Import Cont.QueueModel Cont.QueueLemmas Cont.QueueInv Cont.QueueOps1 Cont.QueueEnsure
  Cont.QueueOps2 Cont.QueueOps3 Cont.QueueSort Cont.QueueSortCS.
Import ListNotations.
Local Open Scope nat_scope.

Lemma find_from_bound x l : forall s i, find_from x l s = Some i -> s <= i < s + length l.
Proof.
  induction l as [|y l IH]; intros s i H; cbn [find_from length] in *; [discriminate|].
  destruct (Z.eqb y x).
  - injection H as <-. lia.
  - apply IH in H. lia.
Qed.

Lemma abs_snoc ow sq q : inv ow sq q -> 0 < cnt q ->
  abs q = abs (remove_tail ow q) ++ [getu q (cnt q - 1)].
Proof.
  intros I Hc. rewrite (abs_remove_tail ow sq q I Hc).
  apply (list_ext _ _ 0%Z); autorewrite with nthdb; cbn [length]; [lia|].
  intros i Hi. autorewrite with nthdb absdb. cbn [length]. dif; fin.
Qed.

Section Refinement.
Variables (ow : bool) (jk : Z) (sq : nat).

Local Notation Inv := (inv ow sq).
Local Notation step1 := (step1 ow jk sq).

Theorem step_refines q o : Inv q ->
  Inv (fst (step1 q o)) /\
  abs (fst (step1 q o)) = fst (step0 (abs q) o) /\
  snd (step1 q o) = snd (step0 (abs q) o).
Proof.
  intros I. destruct o; cbn [QueueModel.step1 step0]; rewrite ?abs_length.
  - (* AddTail *) destruct (add_tail_spec jk sq ow q x I). cbn [fst snd]. auto.
  - (* AddHead *) destruct (add_head_spec jk sq ow q x I). cbn [fst snd]. auto.
  - (* RemoveHead *)
    destruct (cnt q) as [|c] eqn:Ec.
    + rewrite (abs_cnt0 q Ec). cbn [fst snd]. rewrite (abs_cnt0 q Ec). auto.
    + rewrite (abs_remove_head ow sq q I) by lia. cbn [fst snd].
      split; [apply inv_remove_head; [assumption|lia]|]. auto.
  - (* RemoveTail *)
    destruct (cnt q) as [|c] eqn:Ec.
    + rewrite (abs_cnt0 q Ec). cbn [rev fst snd]. rewrite (abs_cnt0 q Ec). auto.
    + rewrite (abs_snoc ow sq q I) by lia. rewrite rev_app_distr. cbn [rev app fst snd].
      rewrite rev_involutive, Ec. split; [apply inv_remove_tail; [assumption|lia]|]. auto.
  - (* RemoveHeadMulti *)
    pose proof (remove_head_multi_spec sq ow q n I) as S. cbv zeta in S.
    destruct (remove_head_multi ow q n) as [q' k]. cbn [fst snd] in *.
    destruct S as (S1&S2&S3). subst k. auto.
  - (* RemoveTailMulti *)
    pose proof (remove_tail_multi_spec sq ow q n I) as S. cbv zeta in S.
    destruct (remove_tail_multi ow q n) as [q' k]. cbn [fst snd] in *.
    destruct S as (S1&S2&S3). subst k. auto.
  - (* RemoveItemAt *)
    destruct (i <? cnt q) eqn:E; cbn [fst snd]; [|auto].
    destruct (remove_at_spec sq ow q i I ltac:(lia)) as [J1 J2].
    rewrite nth_abs by lia. auto.
  - (* InsertItemAt *)
    destruct (insert_at_spec jk sq ow q i x I). cbn [fst snd]. auto.
  - (* ReplaceItemAt *)
    destruct (i <? cnt q) eqn:E; cbn [fst snd]; [|auto].
    split; [apply inv_setu; [assumption|lia]|]. split; [apply (abs_setu ow sq); [assumption|lia]|reflexivity].
  - (* GetItemAt *)
    cbn [fst snd]. split; [assumption|]. split; [reflexivity|].
    destruct (i <? cnt q) eqn:E; [|reflexivity]. rewrite nth_abs by lia. reflexivity.
  - (* Clear *)
    destruct (clear_spec sq ow q release I) as [J1 J2]. cbn [fst snd].
    rewrite (abs_cnt0 _ J2). auto.
  - (* EnsureSize *)
    destruct (too_big n extra); cbn [fst snd]; [auto|].
    destruct (ensure_size_spec jk sq ow q (N.to_nat n) setnum (N.to_nat extra) shrink I) as (J1&J2&_). auto.
  - (* Swap *)
    destruct ((i <? cnt q) && (j <? cnt q)) eqn:E; cbn [fst snd]; [|auto].
    destruct (swap_items_spec sq ow q i j I ltac:(lia) ltac:(lia)) as (J1&J2&_). auto.
  - (* ReverseItemOrdering *)
    destruct (reverse_spec sq ow q from to I). cbn [fst snd]. auto.
  - (* Normalize *)
    destruct (normalize_spec sq ow q I). cbn [fst snd]. auto.
  - (* IndexOf *) cbn [fst snd]. auto.
  - (* LastIndexOf *) cbn [fst snd]. auto.
  - (* AddTailMulti *) destruct (add_tail_multi_spec jk sq ow q xs I). cbn [fst snd]. auto.
  - (* AddHeadMulti *) destruct (add_head_multi_spec jk sq ow q xs I). cbn [fst snd]. auto.
  - (* InsertItemsAt *)
    destruct (insert_items_at_spec jk sq ow q i xs I). cbn [fst snd]. auto.
  - (* CopyFrom *) destruct (copy_from_spec jk sq ow q xs I). cbn [fst snd]. auto.
  - (* RemoveFirstInstanceOf *)
    destruct (find_from x (abs q) 0) as [i|] eqn:E; cbn [fst snd]; [|auto].
    apply find_from_bound in E. rewrite abs_length in E.
    destruct (remove_at_spec sq ow q i I ltac:(lia)). auto.
  - (* RemoveLastInstanceOf *)
    destruct (find_from x (rev (abs q)) 0) as [k|] eqn:E; cbn [fst snd]; [|auto].
    apply find_from_bound in E. rewrite rev_length, abs_length in E.
    destruct (remove_at_spec sq ow q (cnt q - 1 - k) I ltac:(lia)). auto.
  - (* RemoveAllInstancesOf *)
    pose proof (remove_all_instances_spec sq ow q x I) as S. cbv zeta in S.
    destruct (remove_all_instances ow q x) as [q' k]. cbn [fst snd] in *.
    destruct S as (S1&S2&S3). subst k. auto.
  - (* Sort *)
    destruct (sort_items_spec sq ow q bykey from to I). cbn [fst snd]. auto.
  - (* QueueIterator *)
    cbn [fst snd]. split; [assumption|]. split; [reflexivity|].
    rewrite iter_vals_abs, abs_length. reflexivity.
  - (* RemoveSortedDuplicateItems *)
    pose proof (remove_sorted_dups_spec jk sq ow q I) as S. cbv zeta in S.
    destruct (remove_sorted_dups ow jk sq q) as [q' k]. cbn [fst snd] in *.
    destruct S as (S1&S2&S3). subst k. auto.
  - (* RemoveDuplicateItems *)
    destruct (sort_items_spec sq ow q false 0 (cnt q) I) as [J1 J2].
    pose proof (remove_sorted_dups_spec jk sq ow _ J1) as S. cbv zeta in S.
    rewrite <- (abs_length (sort_items q false 0 (cnt q))) in S. rewrite J2, l0_sort_length in S.
    destruct (remove_sorted_dups ow jk sq (sort_items q false 0 (cnt q))) as [q' k]. cbn [fst snd] in *.
    destruct S as (S1&S2&S3). rewrite abs_length in *. subst k. auto.
  - (* InsertItemAtSortedPosition *)
    pose proof (insert_sorted_spec jk sq ow q x I) as S. cbv zeta in S.
    destruct (insert_sorted ow jk sq q x) as [q' p]. cbn [fst snd] in *.
    destruct S as (S1&S2&S3). subst p. auto.
  - (* AddTail(q[i]) *)
    destruct (i <? cnt q) eqn:E; cbn [fst snd]; [|auto].
    destruct (add_tail_spec jk sq ow q (getu q i) I). rewrite nth_abs by lia. auto.
  - (* AddHead(q[i]) *)
    destruct (i <? cnt q) eqn:E; cbn [fst snd]; [|auto].
    destruct (add_head_spec jk sq ow q (getu q i) I). rewrite nth_abs by lia. auto.
  - (* InsertItemAt(idx, q[i]) *)
    destruct (i <? cnt q) eqn:E; cbn [fst snd]; [|auto].
    destruct (insert_at_spec jk sq ow q idx (getu q i) I). rewrite nth_abs by lia. auto.
  - (* ReplaceItemAt(idx, q[i]) *)
    destruct ((idx <? cnt q) && (i <? cnt q)) eqn:E; cbn [fst snd]; [|auto].
    split; [apply inv_setu; [assumption|lia]|]. rewrite nth_abs by lia.
    split; [apply (abs_setu ow sq); [assumption|lia]|reflexivity].
  - (* RemoveAllInstancesOf(q[i]) *)
    destruct (i <? cnt q) eqn:E; cbn [fst snd]; [|auto].
    pose proof (remove_all_instances_spec sq ow q (getu q i) I) as S. cbv zeta in S.
    destruct (remove_all_instances ow q (getu q i)) as [q' k]. cbn [fst snd] in *.
    destruct S as (S1&S2&S3). rewrite nth_abs by lia. subst k. auto.
  - (* ShrinkToFit *)
    destruct (too_big (N.of_nat (cnt q)) extra); cbn [fst snd negb]; [auto|].
    destruct (ensure_size_spec jk sq ow q (cnt q + N.to_nat extra) false 0 true I) as (J1&J2&_). auto.
  - (* EnsureCanAdd *)
    destruct (too_big (N.of_nat (cnt q)) n); cbn [fst snd negb]; [auto|].
    destruct (ensure_size_spec jk sq ow q (cnt q + N.to_nat n) false 0 false I) as (J1&J2&_). auto.
  - (* ReplaceAllItems *)
    destruct (write_all_spec sq ow q (repeat x (cnt q)) I (repeat_length x (cnt q))). cbn [fst snd].
    auto.
  - (* GetArrayPointer *)
    cbn [fst snd]. rewrite (pieces_spec ow sq q I). auto.
  - (* AdoptRawDataArray *)
    destruct (adopt_spec sq ow q xs spare I). cbn [fst snd]. auto.
  - (* ReleaseRawDataArray *)
    destruct (release_spec jk sq ow q I). cbn [fst snd]. auto.
Qed.

Corollary step_inv q o : Inv q -> Inv (fst (step1 q o)).
Proof. intros I. apply (step_refines q o I). Qed.

(* a failing operation leaves the whole representation unchanged, not just the abstract value *)
Theorem step_fail_unchanged q o :
  snd (step1 q o) = OVal None \/ snd (step1 q o) = OStatus false -> fst (step1 q o) = q.
Proof.
  destruct o; cbn [QueueModel.step1]; intros [H|H];
    repeat match goal with
    | H : context [match ?c with _ => _ end] |- _ => destruct c eqn:?
    | |- context [match ?c with _ => _ end] => destruct c eqn:?
    end; cbn [fst snd] in *; try reflexivity; try discriminate.
Qed.

(* when the ideal operation is undefined: bad index, empty sequence, item not present *)
Definition undefined0 (l : list Z) (o : op) : Prop :=
  match o with
  | ORemoveHead | ORemoveTail => l = []
  | ORemoveAt i | OReplaceAt i _ | OGet i | OAddTailRef i | OAddHeadRef i | OInsertAtRef _ i => length l <= i
  | OReplaceRef idx i => length l <= idx \/ length l <= i
  | ORemoveFirstInstance x | ORemoveLastInstance x => ~ In x l
  | OEnsure n _ e _ => too_big n e = true                      (* the uint32 sum n+extra is out of range *)
  | OShrinkToFit e | OEnsureCanAdd e => too_big (N.of_nat (length l)) e = true
  | _ => False
  end.

Lemma find_from_none x l : forall s, find_from x l s = None <-> ~ In x l.
Proof.
  induction l as [|y l IH]; intros s; cbn [find_from In]; [tauto|].
  destruct (Z.eqb y x) eqn:E.
  - apply Z.eqb_eq in E. split; [discriminate|]. intros H. exfalso. apply H. left. exact E.
  - apply Z.eqb_neq in E. rewrite IH. tauto.
Qed.

(* the ideal operation answers "none" / "err" exactly when it is undefined (and then, by [step0]'s
   definition, returns the sequence unchanged) *)
Theorem step0_fails_iff l o :
  (snd (step0 l o) = OVal None \/ snd (step0 l o) = OStatus false) <-> undefined0 l o.
Proof.
  destruct o; cbn [step0 undefined0 snd];
    try (split; [intros [H|H];
                 repeat match type of H with context [if ?c then _ else _] => destruct c end;
                 discriminate H|tauto]).
  - (* RemoveHead *) destruct l; cbn [snd]; split; try tauto; try discriminate. intros [H|H]; discriminate H.
  - (* RemoveTail *)
    destruct (rev l) as [|x t] eqn:E; cbn [snd].
    + split; [intros _|tauto]. apply (f_equal (@rev Z)) in E. rewrite rev_involutive in E. exact E.
    + split; [intros [H|H]; discriminate H|]. intros ->. discriminate E.
  - (* RemoveItemAt *) destruct (i <? length l) eqn:E; cbn [snd]; split; try lia; try tauto. intros [H|H]; discriminate H.
  - (* ReplaceItemAt *) destruct (i <? length l) eqn:E; cbn [snd]; split; try lia; try tauto. intros [H|H]; discriminate H.
  - (* GetItemAt *) destruct (i <? length l) eqn:E; split; try lia; try tauto. intros [H|H]; discriminate H.
  - (* EnsureSize *)
    destruct (too_big n extra); cbn [snd]; split; try (intros _; reflexivity); try (intros _; right; reflexivity);
      try discriminate. intros [H|H]; discriminate H.
  - (* RemoveFirstInstanceOf *)
    destruct (find_from x l 0) eqn:E; cbn [snd].
    + split; [intros [H|H]; discriminate H|]. intros H. apply (find_from_none x l 0) in H. congruence.
    + split; [intros _|tauto]. apply (find_from_none x l 0). exact E.
  - (* RemoveLastInstanceOf *)
    destruct (find_from x (rev l) 0) eqn:E; cbn [snd].
    + split; [intros [H|H]; discriminate H|]. intros H. rewrite in_rev in H. apply (find_from_none x (rev l) 0) in H. congruence.
    + split; [intros _|tauto]. rewrite in_rev. apply (find_from_none x (rev l) 0). exact E.
  - (* AddTail(q[i]) *) destruct (i <? length l) eqn:E; cbn [snd]; split; try lia; try tauto. intros [H|H]; discriminate H.
  - (* AddHead(q[i]) *) destruct (i <? length l) eqn:E; cbn [snd]; split; try lia; try tauto. intros [H|H]; discriminate H.
  - (* InsertItemAt(idx, q[i]) *) destruct (i <? length l) eqn:E; cbn [snd]; split; try lia; try tauto. intros [H|H]; discriminate H.
  - (* ReplaceItemAt(idx, q[i]) *)
    destruct ((idx <? length l) && (i <? length l)) eqn:E; cbn [snd]; split; try lia; try tauto. intros [H|H]; discriminate H.
  - (* ShrinkToFit *)
    destruct (too_big (N.of_nat (length l)) extra); cbn [snd negb]; split; try (intros _; reflexivity);
      try (intros _; right; reflexivity); try discriminate. intros [H|H]; discriminate H.
  - (* EnsureCanAdd *)
    destruct (too_big (N.of_nat (length l)) n); cbn [snd negb]; split; try (intros _; reflexivity);
      try (intros _; right; reflexivity); try discriminate. intros [H|H]; discriminate H.
Qed.

Theorem step0_fail_unchanged l o :
  snd (step0 l o) = OVal None \/ snd (step0 l o) = OStatus false -> fst (step0 l o) = l.
Proof.
  destruct o; cbn [step0]; intros [H|H];
    repeat match goal with
    | H : context [match ?c with _ => _ end] |- _ => destruct c eqn:?
    | |- context [match ?c with _ => _ end] => destruct c eqn:?
    end; cbn [fst snd] in *; try reflexivity; try discriminate.
Qed.

Lemma run_gen ops : forall q l outs, Inv q -> abs q = l ->
  let r1 := fold_left (fun '(q, outs) o => let '(q', r) := step1 q o in (q', outs ++ [r])) ops (q, outs) in
  let r0 := fold_left (fun '(l, outs) o => let '(l', r) := step0 l o in (l', outs ++ [r])) ops (l, outs) in
  Inv (fst r1) /\ abs (fst r1) = fst r0 /\ snd r1 = snd r0.
Proof.
  induction ops as [|o ops IH]; intros q l outs I A; cbn [fold_left].
  - cbn [fst snd]. auto.
  - destruct (step_refines q o I) as (J1&J2&J3). rewrite A in J2, J3.
    destruct (step1 q o) as [q' r]. destruct (step0 l o) as [l' r']. cbn [fst snd] in *. subst r'.
    apply IH; assumption.
Qed.

Theorem run_refines ops : 0 < sq ->
  Inv (fst (run1 ow jk sq ops)) /\
  abs (fst (run1 ow jk sq ops)) = fst (run0 ops) /\
  snd (run1 ow jk sq ops) = snd (run0 ops).
Proof.
  intros Hsq. unfold run1, run0. apply run_gen; [apply inv_empty; exact Hsq|reflexivity].
Qed.

Definition reachable (q : q1) : Prop := exists ops, fst (run1 ow jk sq ops) = q.

Theorem reachable_inv q : 0 < sq -> reachable q -> Inv q.
Proof. intros Hsq [ops <-]. apply (run_refines ops Hsq). Qed.

(* EnsureSize(n, setNumItems=true) growing the count: the old items are kept, every new item is the
   default item -- for owning and for trivial item types, whatever the junk value jk *)
Theorem no_stale_grow q n extra shrink : Inv q -> cnt q <= n ->
  let q' := ensure_size ow jk sq q n true extra shrink in
  cnt q' = n /\ (forall i, i < cnt q -> getu q' i = getu q i) /\
  (forall i, cnt q <= i < n -> getu q' i = dflt).
Proof.
  intros I Hn q'. destruct (ensure_size_spec jk sq ow q n true extra shrink I) as (J1&J2&_).
  fold q' in J1, J2. rewrite l0_resize_grow in J2 by (rewrite abs_length; lia). rewrite abs_length in J2.
  assert (C : cnt q' = n) by (rewrite <- (abs_length q'), J2; autorewrite with nthdb; lia).
  split; [exact C|]. split; intros i Hi.
  - rewrite (getu_abs q' i) by lia. rewrite J2, nth_app', abs_length.
    replace (i <? cnt q) with true by lia. apply nth_abs. lia.
  - rewrite (getu_abs q' i) by lia. rewrite J2, nth_app', abs_length, nth_repeat'.
    replace (i <? cnt q) with false by lia. dif; reflexivity.
Qed.

End Refinement.

(* what a user observes never depends on the junk an uninitialised slot holds *)
Theorem junk_independent ow sq jk1 jk2 ops : 0 < sq ->
  abs (fst (run1 ow jk1 sq ops)) = abs (fst (run1 ow jk2 sq ops)) /\
  snd (run1 ow jk1 sq ops) = snd (run1 ow jk2 sq ops).
Proof.
  intros Hsq. destruct (run_refines ow jk1 sq ops Hsq) as (_&A1&B1).
  destruct (run_refines ow jk2 sq ops Hsq) as (_&A2&B2). split; congruence.
Qed.

(* a reachable state with a wrapped-around window (head 1, tail 0) on the inline array ... *)
Example wrapped_state : exists q,
  reachable true 0%Z 3 q /\ inv true 3 q /\ st q = SSmall /\ cnt q = 3 /\ head q = 1 /\ tail q = 0.
Proof.
  set (ops := [OAddTail 1%Z; OAddTail 2%Z; OAddTail 3%Z; ORemoveHead; OAddTail 4%Z]).
  exists (fst (run1 true 0%Z 3 ops)).
  split; [exists ops; reflexivity|]. split; [apply run_refines; lia|]. vm_compute. auto.
Qed.

(* ... and one on a heap array with junk outside the window (trivial items) *)
Example heap_state : exists q,
  inv false 3 q /\ st q = SHeap /\ cnt q = 2 /\ In 77%Z (arr q) /\ ~ In 77%Z (abs q).
Proof.
  set (ops := [OEnsure 6%N false 0%N false; OAddHead 5%Z; OAddHead 6%Z]).
  exists (fst (run1 false 77%Z 3 ops)).
  split; [apply run_refines; lia|]. vm_compute. repeat split; auto.
  intros [H|[H|[]]]; discriminate.
Qed.
