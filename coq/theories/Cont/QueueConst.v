(* C16 -- the SMALL_QUEUE_SIZE translated from util/Queue.h, and that it is positive (kept in its own file: the Queue proofs
   do not depend on Gen/Consts.v; Properties_C16.C16_queue_refines_code_constant instantiates the refinement with it). *)
From Coq Require Import NArith Lia.
From Muscle Require Import Gen.Consts.

(* ARRAYITEMS(_smallQueue) for the 4-byte items of the harness, as translated from util/Queue.h on every run; the refinement
   theorems hold for every positive size *)
Definition small_queue_size : nat := N.to_nat c_QUEUE_INLINE_SLOTS_INT32.

Lemma small_queue_size_pos : 0 < small_queue_size.
Proof. vm_compute. lia. Qed.
