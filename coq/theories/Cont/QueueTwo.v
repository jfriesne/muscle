(* C16 -- operations involving a second Queue (or the Queue itself as argument): SwapContents,
   SwapContentsAux, Plunder (move), CopyFrom, operator=, operator==, StartsWith/EndsWith, the lexicographic
   comparison, the Queue forms of AddTailMulti/AddHeadMulti/InsertItemsAt; refinement of the two-queue model,
   lifted to all operation lists; the un-repaired self-AddHeadMulti (F36) and SwapContentsAux (F35) refuted. *)
From Coq Require Import List Arith ZArith Bool Lia ZifyBool.
From Muscle Require Import Cont.QueueModel Cont.QueueLemmas Cont.QueueInv Cont.QueueOps1 Cont.QueueEnsure
  Cont.QueueOps2 Cont.QueueOps3 Cont.QueueSort Cont.QueueProofs.
Import ListNotations.
Local Open Scope nat_scope.

Lemma zlist_eqb_spec a : forall b, zlist_eqb a b = true <-> a = b.
Proof.
  induction a as [|x a IH]; intros [|y b]; cbn [zlist_eqb]; try (split; [discriminate|discriminate]);
    [split; reflexivity|].
  rewrite andb_true_iff, IH, Z.eqb_eq. split; [intros [-> ->]; reflexivity|intros H; injection H; auto].
Qed.

Lemma bool_eq_iff (x y : bool) : (x = true <-> y = true) -> x = y.
Proof. destruct x, y; intros [H1 H2]; auto; try (symmetry; auto). Qed.

Lemma slice_length l start num : length (slice l start num) = Nat.min num (length l - start).
Proof. unfold slice. autorewrite with nthdb. reflexivity. Qed.

Section Two.
Variables (jk : Z) (sq : nat).
Implicit Types (ow : bool) (q a b t r : q1).

(* adopting another queue's array, keeping one's own in-object array *)
Lemma inv_transplant ow b inl0 : inv ow sq b ->
  (st b <> SSmall -> length inl0 = sq /\ (ow = true -> forall i, i < sq -> nth i inl0 dflt = dflt)) ->
  let q' := mkQ (st b) (arr b) (cnt b) (head b) (tail b) inl0 in
  inv ow sq q' /\ abs q' = abs b.
Proof.
  intros I H q'. split; [|reflexivity].
  constructor; unfold store_ok, clean, inl_ok; cbn [st cnt head tail inl q'];
    change (qsize q') with (qsize b).
  - exact (inv_sq _ _ b I).
  - exact (inv_cnt _ _ b I).
  - exact (inv_head _ _ b I).
  - exact (inv_tail _ _ b I).
  - exact (inv_store _ _ b I).
  - exact (inv_clean _ _ b I).
  - exact H.
Qed.

Lemma swap_contents_aux_spec ow sm lg : inv ow sq sm -> inv ow sq lg -> st sm = SSmall -> st lg <> SSmall ->
  let p := swap_contents_aux ow sm lg in
  inv ow sq (fst p) /\ inv ow sq (snd p) /\ abs (fst p) = abs lg /\ abs (snd p) = abs sm.
Proof.
  intros Is Il Hs Hl p. subst p. unfold swap_contents_aux. cbv zeta. cbn [fst snd].
  pose proof (inv_sq _ _ sm Is) as Hsq.
  pose proof (inv_store _ _ sm Is) as Sm. unfold store_ok in Sm. rewrite Hs in Sm.
  pose proof (inv_cnt _ _ sm Is) as Cm.
  (* the large one moves into its in-object array, or loses its array *)
  assert (L : inv ow sq (if 0 <? cnt sm then mkQ SSmall (abs sm ++ skipn (cnt sm) (inl lg)) (cnt sm) 0 (cnt sm - 1) []
                         else mkQ SNull [] 0 (head lg) (tail lg) (inl lg)) /\
              abs (if 0 <? cnt sm then mkQ SSmall (abs sm ++ skipn (cnt sm) (inl lg)) (cnt sm) 0 (cnt sm - 1) []
                   else mkQ SNull [] 0 (head lg) (tail lg) (inl lg)) = abs sm).
  { destruct (inv_inl _ _ lg Il Hl) as [L1 L2]. destruct (0 <? cnt sm) eqn:E.
    - apply (inv_front sq ow SSmall (abs sm) _ [] (cnt sm) (eq_sym (abs_length sm)) Hsq); try congruence.
      + intros _. autorewrite with nthdb. lia.
      + intros Ho i Hi. rewrite nth_skipn'. autorewrite with nthdb in Hi. apply (L2 Ho). lia.
    - split; [|rewrite (abs_cnt0 sm) by lia; reflexivity].
      constructor; unfold store_ok, clean, inl_ok, qsize; cbn [st arr cnt head tail inl length]; try lia.
      intros _. split; assumption. }
  destruct L as [L1 L2]. split; [|split; [exact L1|split; [|exact L2]]].
  - (* this adopts the large array *)
    constructor; unfold store_ok, clean, inl_ok; cbn [st cnt head tail inl];
      match goal with |- context [qsize (mkQ ?s ?a ?c ?h ?t ?i)] => change (qsize (mkQ s a c h t i)) with (qsize lg) | _ => idtac end.
    + exact Hsq.
    + exact (inv_cnt _ _ lg Il).
    + intros H. replace (0 <? qsize lg) with true by lia. exact (inv_head _ _ lg Il H).
    + intros H. pose proof (inv_cnt _ _ lg Il). replace (0 <? qsize lg) with true by lia.
      rewrite (inv_tail _ _ lg Il H). reflexivity.
    + exact (inv_store _ _ lg Il).
    + intros Ho i Hi. replace (0 <? qsize lg) with true by lia.
      transitivity (getu lg i); [reflexivity|]. apply (inv_clean _ _ lg Il Ho). exact Hi.
    + intros _. destruct (cleared_ok sq ow sm Is) as (J1&J3&J5). destruct ow.
      * split; [unfold qsize in J3, Sm; congruence|]. intros _ i Hi.
        assert (Hh : head (clear_window sm (cnt sm)) < qsize (clear_window sm (cnt sm)))
          by (apply (inv_head _ _ _ J1); lia).
        rewrite nth_arr_getu by lia. apply (J5 eq_refl). apply intern_extern; lia.
      * split; [exact Sm|discriminate].
  - apply abs_congr; [reflexivity|]. intros i Hi. pose proof (inv_cnt _ _ lg Il).
    unfold getu, intern, qsize. cbn [arr head]. unfold qsize in *. replace (0 <? length (arr lg)) with true by lia.
    reflexivity.
Qed.

Lemma swap_small_small ow a b : inv ow sq a -> inv ow sq b -> cnt b <= cnt a ->
  let common := cnt b in
  let a1 := ensure_size ow jk sq a common true 0 false in
  let b1 := add_tail_multi ow jk sq b (skipn common (abs a)) in
  let a2 := write_from a1 0 (firstn common (abs b1)) in
  let b2 := write_from b1 0 (firstn common (abs a1)) in
  inv ow sq a2 /\ inv ow sq b2 /\ abs a2 = abs b /\ abs b2 = abs a.
Proof.
  intros Ia Ib Hc common a1 b1 a2 b2.
  destruct (ensure_size_spec jk sq ow a common true 0 false Ia) as (I1 & A1 & _). fold a1 in I1, A1.
  rewrite l0_resize_shrink in A1 by (rewrite abs_length; exact Hc).
  destruct (add_tail_multi_spec jk sq ow b (skipn common (abs a)) Ib) as (I2 & A2). fold b1 in I2, A2.
  assert (C1 : cnt a1 = common) by (rewrite <- (abs_length a1), A1; autorewrite with nthdb; lia).
  assert (B1 : firstn common (abs b1) = abs b)
    by (rewrite A2, firstn_app, abs_length, Nat.sub_diag, firstn_all2, app_nil_r by (rewrite abs_length; lia); reflexivity).
  destruct (write_all_spec sq ow a1 (firstn common (abs b1)) I1) as [J1 J2]; [rewrite B1, abs_length; lia|].
  assert (B2 : firstn common (abs a1) = firstn common (abs a)) by (rewrite A1, firstn_firstn, Nat.min_id; reflexivity).
  destruct (write_from_mid sq ow (firstn common (abs a1)) b1 [] (abs b) (skipn common (abs a)) 0 I2 A2 eq_refl) as [K1 K2];
    [autorewrite with nthdb; lia|].
  split; [exact J1|]. split; [exact K1|]. split; [rewrite <- B1; exact J2|].
  unfold b2. rewrite K2, B2. apply firstn_skipn.
Qed.

Lemma swap_contents_spec ow a b : inv ow sq a -> inv ow sq b ->
  let p := swap_contents ow jk sq a b in
  inv ow sq (fst p) /\ inv ow sq (snd p) /\ abs (fst p) = abs b /\ abs (snd p) = abs a.
Proof.
  intros Ia Ib p. subst p. unfold swap_contents.
  destruct (st a) eqn:Ea; destruct (st b) eqn:Eb;
    try (apply swap_contents_aux_spec; (assumption || congruence));
    try (destruct (swap_contents_aux ow b a) as [b' a'] eqn:E;
         pose proof (swap_contents_aux_spec ow b a Ib Ia ltac:(assumption) ltac:(congruence)) as S;
         cbv zeta in S; rewrite E in S; cbn [fst snd] in *; tauto);
    try (cbn [fst snd];
         destruct (inv_transplant ow b (inl a) Ib) as [J1 J2]; [intros _; apply (inv_inl _ _ a Ia); congruence|];
         destruct (inv_transplant ow a (inl b) Ia) as [K1 K2]; [intros _; apply (inv_inl _ _ b Ib); congruence|];
         cbv zeta in J1, J2, K1, K2; rewrite Eb in J1, J2; rewrite Ea in K1, K2; tauto).
  (* both in their in-object arrays *)
  destruct (cnt b <? cnt a) eqn:E.
  - replace (Nat.min (cnt a) (cnt b)) with (cnt b) by lia. cbn [fst snd].
    apply (swap_small_small ow a b Ia Ib). lia.
  - replace (Nat.min (cnt a) (cnt b)) with (cnt a) by lia. cbn [fst snd].
    pose proof (swap_small_small ow b a Ib Ia ltac:(lia)) as S. cbv zeta in S. tauto.
Qed.

Lemma plunder_spec ow t r : inv ow sq t -> inv ow sq r ->
  let p := plunder ow jk sq t r in
  inv ow sq (fst p) /\ inv ow sq (snd p) /\ abs (fst p) = abs r /\ abs (snd p) = [].
Proof.
  intros It Ir p. subst p. unfold plunder.
  assert (G : forall t' r', inv ow sq t' -> inv ow sq r' -> abs t' = abs r ->
              inv ow sq (fst (t', clear ow r' false)) /\ inv ow sq (snd (t', clear ow r' false)) /\
              abs (fst (t', clear ow r' false)) = abs r /\ abs (snd (t', clear ow r' false)) = []).
  { intros t' r' I1 I2 A. cbn [fst snd]. destruct (clear_spec sq ow r' false I2) as [J1 J2].
    rewrite (abs_cnt0 _ J2). tauto. }
  destruct (st r) eqn:Er.
  - destruct (swap_contents ow jk sq t r) as [t' r'] eqn:E.
    pose proof (swap_contents_spec ow t r It Ir) as S. cbv zeta in S. rewrite E in S. cbn [fst snd] in S.
    apply G; tauto.
  - destruct (ensure_size_spec jk sq ow t (cnt r) true 0 false It) as (I1 & A1 & _).
    set (t1 := ensure_size ow jk sq t (cnt r) true 0 false) in *.
    assert (C1 : cnt t1 = cnt r) by (rewrite <- (abs_length t1), A1; apply l0_resize_length).
    destruct (write_all_spec sq ow t1 (abs r) I1) as [J1 J2]; [rewrite abs_length; lia|].
    destruct (write_all_spec sq ow r (abs t1) Ir) as [K1 _]; [rewrite abs_length; lia|].
    apply G; assumption.
  - destruct (swap_contents ow jk sq t r) as [t' r'] eqn:E.
    pose proof (swap_contents_spec ow t r It Ir) as S. cbv zeta in S. rewrite E in S. cbn [fst snd] in S.
    apply G; tauto.
Qed.

Lemma assign_spec ow t r : inv ow sq t -> inv ow sq (assign ow jk sq t r) /\ abs (assign ow jk sq t r) = abs r.
Proof.
  intros It. unfold assign. destruct (cnt r =? 0) eqn:E.
  - destruct (clear_spec sq ow t true It) as [J1 J2]. split; [assumption|].
    rewrite (abs_cnt0 _ J2), (abs_cnt0 r) by lia. reflexivity.
  - apply copy_from_spec. assumption.
Qed.

Lemma eq_loop_spec a b k : eq_loop a b k = true <-> forall i, i < k -> getu a i = getu b i.
Proof.
  induction k as [|k IH]; cbn [eq_loop].
  - split; [intros _ i Hi; lia|reflexivity].
  - destruct (Z.eqb (getu a k) (getu b k)) eqn:E.
    + rewrite IH. apply Z.eqb_eq in E. split.
      * intros H i Hi. destruct (Nat.eq_dec i k) as [->|]; [assumption|apply H; lia].
      * intros H i Hi. apply H. lia.
    + split; [discriminate|]. intros H. apply Z.eqb_neq in E. exfalso. apply E. apply H. lia.
Qed.

Lemma abs_eq_iff a b : abs a = abs b <-> cnt a = cnt b /\ forall i, i < cnt a -> getu a i = getu b i.
Proof.
  split.
  - intros H. assert (C : cnt a = cnt b) by (rewrite <- (abs_length a), H; apply abs_length).
    split; [exact C|]. intros i Hi. rewrite <- (nth_abs a i 0%Z), H by exact Hi. apply nth_abs. lia.
  - intros [C H]. apply abs_congr; [lia|]. intros i Hi. apply H. lia.
Qed.

Lemma queues_eq_spec a b : queues_eq a b = zlist_eqb (abs a) (abs b).
Proof.
  apply bool_eq_iff. rewrite zlist_eqb_spec, abs_eq_iff. unfold queues_eq.
  destruct (cnt a =? cnt b) eqn:E.
  - rewrite eq_loop_spec. split; [intros H; split; [lia|exact H]|tauto].
  - split; [discriminate|]. intros [H _]. lia.
Qed.

Lemma forallb_items t r (f : nat -> nat) (L : list Z) : length L = cnt r ->
  (forall i, i < cnt r -> nth i L 0%Z = getu t (f i)) ->
  forallb (fun i => Z.eqb (getu r i) (getu t (f i))) (seq 0 (cnt r)) = zlist_eqb L (abs r).
Proof.
  intros HL Hn. apply bool_eq_iff. rewrite forallb_forall, zlist_eqb_spec. split.
  - intros H. apply (list_ext _ _ 0%Z); [rewrite abs_length; exact HL|].
    intros i Hi. rewrite HL in Hi. rewrite Hn, nth_abs by lia. symmetry. apply Z.eqb_eq, H, in_seq. lia.
  - intros H i Hi. apply in_seq in Hi. apply Z.eqb_eq. rewrite <- Hn, H by lia. symmetry. apply nth_abs. lia.
Qed.

Lemma starts_with_spec t r :
  starts_with t r = (length (abs r) <=? length (abs t)) && zlist_eqb (firstn (length (abs r)) (abs t)) (abs r).
Proof.
  rewrite !abs_length. unfold starts_with. destruct (cnt t <? cnt r) eqn:E.
  - replace (cnt r <=? cnt t) with false by lia. reflexivity.
  - replace (cnt r <=? cnt t) with true by lia. cbn [andb].
    apply (forallb_items t r (fun i => i)); [autorewrite with nthdb; lia|].
    intros i Hi. rewrite nth_firstn', nth_abs by lia. replace (i <? cnt r) with true by lia. reflexivity.
Qed.

Lemma ends_with_spec t r :
  ends_with t r = (length (abs r) <=? length (abs t)) &&
                  zlist_eqb (skipn (length (abs t) - length (abs r)) (abs t)) (abs r).
Proof.
  rewrite !abs_length. unfold ends_with. destruct (cnt t <? cnt r) eqn:E.
  - replace (cnt r <=? cnt t) with false by lia. reflexivity.
  - replace (cnt r <=? cnt t) with true by lia. cbn [andb]. cbv zeta.
    apply (forallb_items t r (fun i => i + (cnt t - cnt r))); [autorewrite with nthdb; lia|].
    intros i Hi. rewrite nth_skipn', nth_abs by lia. f_equal. lia.
Qed.

Lemma insert_items_at_q_spec ow t src idx start num : inv ow sq t ->
  inv ow sq (insert_items_at_q ow jk sq t src idx start num) /\
  abs (insert_items_at_q ow jk sq t src idx start num) =
  l0_insert_at (abs t) (Nat.min idx (cnt t)) (slice src start num).
Proof.
  intros I. unfold insert_items_at_q. cbv zeta.
  set (xs := slice src start num). set (i := Nat.min idx (cnt t)).
  destruct xs as [|x xs'] eqn:Ex.
  - split; [assumption|]. unfold l0_insert_at. cbn [app]. rewrite firstn_skipn. reflexivity.
  - rewrite <- Ex. clear Ex. destruct (i =? 0) eqn:E0.
    + destruct (add_head_multi_spec jk sq ow t xs I) as [J1 J2]. split; [assumption|].
      rewrite J2. replace i with 0 by lia. reflexivity.
    + destruct (i =? cnt t) eqn:E1.
      * destruct (add_tail_multi_spec jk sq ow t xs I) as [J1 J2]. split; [assumption|].
        rewrite J2. replace i with (cnt t) by lia. unfold l0_insert_at.
        rewrite firstn_abs_all, skipn_all2, app_nil_r by (rewrite ?abs_length; lia). reflexivity.
      * apply insert_items_general_spec; [assumption|subst i; lia].
Qed.

Definition inv2 ow (p : q1 * q1) : Prop := inv ow sq (fst p) /\ inv ow sq (snd p).
Definition abs2 (p : q1 * q1) : list Z * list Z := (abs (fst p), abs (snd p)).

Lemma sel_abs2 bb p : abs2 (sel bb p) = sel bb (abs2 p).
Proof. destruct bb, p; reflexivity. Qed.

Lemma sel_inv2 ow bb p : inv2 ow p -> inv2 ow (sel bb p).
Proof. destruct bb, p; unfold inv2; cbn; tauto. Qed.

Theorem step2_refines ow p o : inv2 ow p ->
  inv2 ow (fst (step2 ow jk sq p o)) /\
  abs2 (fst (step2 ow jk sq p o)) = fst (step20 (abs2 p) o) /\
  snd (step2 ow jk sq p o) = snd (step20 (abs2 p) o).
Proof.
  intros I. unfold step2, step20. cbv zeta.
  set (bb := op2_this o).
  pose proof (sel_inv2 ow bb p I) as Is. pose proof (sel_abs2 bb p) as As.
  destruct (sel bb p) as [t r]. unfold inv2 in Is. cbn [fst snd] in Is. destruct Is as [It Ir].
  rewrite <- As. change (abs2 (t, r)) with (abs t, abs r). cbv beta iota.
  (* every case ends with: the new pair is [sel bb (t', r')], both invariants hold, abstractions match *)
  assert (F : forall t' r' lt lr (x y : out), inv ow sq t' -> inv ow sq r' -> abs t' = lt -> abs r' = lr -> x = y ->
              inv2 ow (fst (sel bb (t', r'), x)) /\
              abs2 (fst (sel bb (t', r'), x)) = fst (sel bb (lt, lr), y) /\ snd (sel bb (t', r'), x) = snd (sel bb (lt, lr), y)).
  { intros t' r' lt lr x y H1 H2 H3 H4 H5. cbn [fst snd]. split; [apply sel_inv2; split; assumption|].
    split; [rewrite sel_abs2; unfold abs2; cbn [fst snd]; congruence|assumption]. }
  destruct o; cbn [op2_this] in *.
  - (* a single-queue operation on [this] *)
    destruct (step_refines ow jk sq t o It) as (J1&J2&J3).
    destruct (step1 ow jk sq t o) as [t' res]. destruct (step0 (abs t) o) as [lt res0]. cbn [fst snd] in *.
    apply F; auto.
  - (* SwapContents *)
    pose proof (swap_contents_spec ow t r It Ir) as S. cbv zeta in S.
    destruct (swap_contents ow jk sq t r) as [t' r']. cbn [fst snd] in S. apply F; tauto.
  - (* Plunder *)
    pose proof (plunder_spec ow t r It Ir) as S. cbv zeta in S.
    destruct (plunder ow jk sq t r) as [t' r']. cbn [fst snd] in S. apply F; tauto.
  - (* CopyFrom(queue) *)
    destruct (copy_from_spec jk sq ow t (abs r) It). apply F; auto.
  - (* operator= *)
    destruct (assign_spec ow t r It). apply F; auto.
  - (* operator== *)
    cbn [fst snd]. split; [exact I|]. split; [reflexivity|]. rewrite queues_eq_spec. reflexivity.
  - (* StartsWith *)
    cbn [fst snd]. split; [exact I|]. split; [reflexivity|]. rewrite starts_with_spec. reflexivity.
  - (* EndsWith *)
    cbn [fst snd]. split; [exact I|]. split; [reflexivity|]. rewrite ends_with_spec. reflexivity.
  - (* AddTailMulti(queue, start, num) *)
    unfold add_tail_multi_q.
    destruct (add_tail_multi_spec jk sq ow t (slice (if self then abs t else abs r) start num) It) as [J1 J2].
    apply F; auto.
  - (* AddHeadMulti(queue, start, num) *)
    unfold add_head_multi_q.
    destruct (add_head_multi_spec jk sq ow t (slice (if self then abs t else abs r) start num) It) as [J1 J2].
    apply F; auto.
  - (* InsertItemsAt(index, queue, start, num) *)
    destruct (insert_items_at_q_spec ow t (if self then abs t else abs r) idx start num It) as [J1 J2].
    apply F; auto. rewrite J2, abs_length. reflexivity.
  - (* lexicographic comparison *)
    cbn [fst snd]. split; [exact I|]. split; [reflexivity|]. rewrite lex_cmp_abs. reflexivity.
Qed.

Lemma run2_gen ow ops : forall p l outs, inv2 ow p -> abs2 p = l ->
  let r1 := fold_left (fun '(p, outs) o => let '(p', r) := step2 ow jk sq p o in (p', outs ++ [r])) ops (p, outs) in
  let r0 := fold_left (fun '(l, outs) o => let '(l', r) := step20 l o in (l', outs ++ [r])) ops (l, outs) in
  inv2 ow (fst r1) /\ abs2 (fst r1) = fst r0 /\ snd r1 = snd r0.
Proof.
  induction ops as [|o ops IH]; intros p l outs I A; cbn [fold_left].
  - cbn [fst snd]. auto.
  - destruct (step2_refines ow p o I) as (J1&J2&J3). rewrite A in J2, J3.
    destruct (step2 ow jk sq p o) as [p' r]. destruct (step20 l o) as [l' r']. cbn [fst snd] in *. subst r'.
    apply IH; assumption.
Qed.

Theorem run2_refines ow ops : 0 < sq ->
  inv2 ow (fst (run2 ow jk sq ops)) /\
  abs2 (fst (run2 ow jk sq ops)) = fst (run20 ops) /\
  snd (run2 ow jk sq ops) = snd (run20 ops).
Proof.
  intros Hsq. unfold run2, run20. apply run2_gen; [split; apply inv_empty; exact Hsq|reflexivity].
Qed.

End Two.

(* Finding F36: a.AddHeadMulti(a, 0, n) run as the AddHead loop on the queue it reads from, with enough unused
   slots.  The faithful model of that loop ([add_head_multi_self_old]) violates the ideal semantics
   (the result even depends on the capacity): {1,2,3} in 10 slots becomes 1 1 3 1 2 3. *)
Theorem add_head_multi_self_old_refuted : exists q start num,
  inv false 3 q /\
  abs (add_head_multi_self_old false 0%Z 3 q start num) <> slice (abs q) start num ++ abs q /\
  abs (add_head_multi_q false 0%Z 3 q (abs q) start num) = slice (abs q) start num ++ abs q.
Proof.
  exists (fst (run1 false 0%Z 3 [OEnsure 10%N false 0%N false; OAddTail 1%Z; OAddTail 2%Z; OAddTail 3%Z])), 0, 3.
  split; [apply run_refines; lia|]. split; [vm_compute; discriminate|vm_compute; reflexivity].
Qed.

(* Finding F35: a SwapContentsAux that leaves the moved-out items in the vacated in-object array
   ([swap_contents_aux_old]) loses the representation invariant (unused in-object array all default for owning
   items); a later shrink into that array followed by EnsureSize(n, true) turns that into visible stale items. *)
Theorem swap_contents_aux_old_refuted : exists sm lg,
  inv true 3 sm /\ inv true 3 lg /\ st sm = SSmall /\ st lg <> SSmall /\
  ~ inv true 3 (fst (swap_contents_aux_old sm lg)) /\
  inv true 3 (fst (swap_contents_aux true sm lg)).
Proof.
  exists (fst (run1 true 0%Z 3 [OAddTail 5%Z])), (empty_q true 0%Z 3).
  assert (I1 : inv true 3 (fst (run1 true 0%Z 3 [OAddTail 5%Z]))) by (apply run_refines; lia).
  assert (I2 : inv true 3 (empty_q true 0%Z 3)) by (apply inv_empty; lia).
  split; [exact I1|]. split; [exact I2|]. split; [reflexivity|]. split; [discriminate|]. split.
  - intros I. destruct (inv_inl _ _ _ I) as [_ H]; [discriminate|].
    specialize (H eq_refl 0 ltac:(lia)). vm_compute in H. discriminate.
  - apply (swap_contents_aux_spec 3 true _ _ I1 I2); [reflexivity|discriminate].
Qed.

(* non-vacuity of [inv2]: a reachable pair with one queue on the heap and one in its in-object array *)
Example two_state : exists p,
  inv2 3 true p /\ st (fst p) = SHeap /\ st (snd p) = SSmall /\ abs2 p = ([1; 2; 3; 4; 5]%Z, [7; 8]%Z).
Proof.
  set (ops := [OOn false (OAddTailMulti [7; 8]%Z); OOn true (OAddTailMulti [1; 2; 3; 4; 5]%Z); OSwapContents false]).
  exists (fst (run2 true 0%Z 3 ops)). split; [apply run2_refines; lia|]. vm_compute. auto.
Qed.
