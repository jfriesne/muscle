(* C09 -- traversal theory, semantic premise: an operation that relinks entries (moves, sorts,
   repositioning Puts) is harmless for a traversal whenever it leaves the relative order of the
   entries of the iterator's table unchanged.  The one exception is the positional Put of an existing
   key on an auto-sorting table (it moves the entry twice, see HtTravRefuted.v); that one has to be a
   complete no-op. *)
From Coq Require Import List Arith ZArith NArith PArith Bool Lia FMapPositive Permutation.
From Muscle Require Import Cont.HtModel Cont.HtStep Cont.HtIdeal Cont.HtLemmas Cont.HtRepr Cont.HtWalk Cont.HtIters
                           Cont.HtTable Cont.HtMoves Cont.HtPut Cont.HtExact Cont.HtPend Cont.HtRefTab
                           Cont.HtInv Cont.HtSafe Cont.HtSwap Cont.HtTravW Cont.HtTravOps.
Import ListNotations.

Definition memb (x : positive) (l : list positive) : bool := existsb (Pos.eqb x) l.
Fixpoint list_eqb (a b : list positive) : bool :=
  match a, b with
  | [], [] => true
  | x :: a', y :: b' => Pos.eqb x y && list_eqb a' b'
  | _, _ => false
  end.
(* the entries common to l and l' occur in the same relative order *)
Definition order_keptb (l l' : list positive) : bool :=
  list_eqb (filter (fun x => memb x l') l) (filter (fun x => memb x l) l').

Lemma memb_in : forall x l, memb x l = true <-> In x l.
Proof.
  intros x l. unfold memb. rewrite existsb_exists. split.
  - intros (y & Hy & E). apply Pos.eqb_eq in E. subst y. exact Hy.
  - intros H. exists x. split; [exact H|apply Pos.eqb_refl].
Qed.

Lemma list_eqb_eq : forall a b, list_eqb a b = true -> a = b.
Proof.
  induction a as [|x a IH]; intros [|y b] H; cbn in H; try discriminate; [reflexivity|].
  apply andb_prop in H. destruct H as [H1 H2]. apply Pos.eqb_eq in H1. subst y. f_equal. apply IH. exact H2.
Qed.

Lemma list_eqb_refl : forall a, list_eqb a a = true.
Proof. induction a as [|x a IH]; [reflexivity|]. cbn. rewrite Pos.eqb_refl, IH. reflexivity. Qed.

Lemma order_keptb_refl : forall l, order_keptb l l = true.
Proof. intros l. unfold order_keptb. apply list_eqb_refl. Qed.

(* two arrangements of the same entries in the same relative order are equal *)
Lemma order_kept_same_set : forall l l', (forall x, In x l <-> In x l') -> order_keptb l l' = true -> l = l'.
Proof.
  intros l l' Hs H. unfold order_keptb in H. apply list_eqb_eq in H.
  rewrite (filter_id_in _ l) in H by (intros x Hx; apply memb_in; apply Hs; exact Hx).
  rewrite (filter_id_in _ l') in H by (intros x Hx; apply memb_in; apply Hs; exact Hx).
  exact H.
Qed.

(* what lies beyond a common cursor is the same in both arrangements, as far as common entries go *)
Lemma rest_kept : forall bw l l' c n, order_keptb l l' = true -> In c l -> In c l' -> In n l -> In n l' ->
  (In n (rest_of bw l c) <-> In n (rest_of bw l' c)).
Proof.
  intros bw l l' c n H Hc Hc' Hn Hn'. unfold order_keptb in H. apply list_eqb_eq in H.
  assert (A : In n (filter (fun x => memb x l') (rest_of bw l c)) <-> In n (filter (fun x => memb x l) (rest_of bw l' c))).
  { rewrite <- !rest_of_filter by (apply memb_in; assumption). rewrite H. tauto. }
  rewrite !filter_In in A. rewrite !memb_in in A. tauto.
Qed.

Lemma tcalm_kept : forall l f it l' f', (f <= f')%positive ->
  (forall n, In n l -> In n l') -> (forall n, In n l' -> In n l \/ (f <= n)%positive) ->
  (forall c, icookie it = Some c -> In c l) ->
  order_keptb l l' = true -> tcalm l f it l' f' it.
Proof.
  intros l f it l' f' F Mono New Ck K. constructor; [exact F|exact New| | |reflexivity].
  - intros n Hp Hn'. unfold pend in *. destruct (icookie it) as [c|] eqn:Ec; [|destruct Hp].
    apply in_app_or in Hp. apply in_or_app. destruct Hp as [Hp|Hp]; [left; exact Hp|right].
    pose proof (Ck c eq_refl) as Hc. apply (rest_kept (ibw it) l l' c n K Hc (Mono c Hc)); [|exact Hn'|exact Hp].
    eapply rest_of_incl; exact Hp.
  - intros n Hp. unfold pend in *. destruct (icookie it) as [c|] eqn:Ec; [|destruct Hp].
    apply in_app_or in Hp. destruct Hp as [Hp|Hp]; [left; apply in_or_app; left; exact Hp|].
    pose proof (Ck c eq_refl) as Hc. assert (Hn' : In n l') by (eapply rest_of_incl; exact Hp).
    destruct (New n Hn') as [Hn|Hn]; [left|right; exact Hn].
    apply in_or_app. right. apply (rest_kept (ibw it) l l' c n K Hc (Mono c Hc) Hn Hn'). exact Hp.
Qed.

(* A step on table t that may relink entries.  No entry is lost.  [rl_its]: either no iterator of t is
   touched, or no entry is new, the list differs from the old one and every iterator stays with t
   (MoveTo*Aux patches the iterators on the moved entry): with the same entries in the same relative
   order this second case cannot arise. *)
Record relinked (t : nat) (h : ht) (I : itab) (h' : ht) (I' : itab) : Prop := mkRelinked {
  rl_ok : okstep t I (h', I');
  rl_mono : forall n, live h n -> live h' n;
  rl_new : forall n, live h' n -> live h n \/ (fresh h <= n)%positive;
  rl_fresh : (fresh h <= fresh h')%positive;
  rl_its : (forall i it, geti I i = Some it -> iown it = Some t -> geti I' i = Some it) \/
           ((forall n, live h' n -> live h n) /\ ids h' <> ids h /\
            (forall i it, geti I i = Some it -> iown it = Some t ->
               exists it', geti I' i = Some it' /\ iown it' = Some t /\ inoreg it' = inoreg it)) }.

Lemma TL_ids_live : forall t h I n, TL t h I -> (In n (ids h) <-> live h n).
Proof.
  intros t h I n HTL. destruct (tl_tinv _ _ _ HTL) as (l & T). rewrite (tinv_ids h l T). split.
  - apply (lk_live _ _ (ti_linked _ _ T)).
  - apply (ti_dom _ _ T).
Qed.

(* what has to be shown of the world w' an order-keeping relinking operation leads to *)
Definition kept_keeps (i : nat) (w w' : world) : Prop :=
  order_keptb (it_list w i) (it_list w' i) = true -> keeps i w w'.

Lemma calm_of_relinked : forall w t h' I' i, WF w -> t < length (tabs w) ->
  relinked t (gett w t) (its w) h' I' -> reg w i -> kept_keeps i w (put_ti w t h' I').
Proof.
  intros w t h' I' i W Ht [[HTL' F] Mono New Fr Its] R K.
  pose proof (wf_tabs _ W t Ht) as HTL. cbn [fst snd] in HTL', F.
  apply keeps_put; [exact Ht|exact F|exact R|]. intros it Hg O Rg.
  (* for an iterator of t the two lists compared by K are those of t *)
  destruct (slot_view w i it Hg) as (_ & El & _). rewrite O in El. rewrite El in K.
  assert (El' : forall it', geti I' i = Some it' -> iown it' = Some t -> it_list (put_ti w t h' I') i = ids h').
  { intros it' Hg' O'. destruct (slot_view (put_ti w t h' I') i it') as (_ & E & _); [rewrite its_put; exact Hg'|].
    rewrite O', gett_put_same in E by exact Ht. exact E. }
  destruct Its as [Same|(Back & Ne & Own)].
  - pose proof (Same i it Hg O) as Hg'. rewrite (El' it Hg' O) in K.
    exists it. split; [exact Hg'|split; [exact Rg|right; split; [exact O|]]].
    apply tcalm_kept; [exact Fr| | | |exact K].
    + intros n. rewrite (TL_ids_live t _ _ n HTL), (TL_ids_live t h' I' n HTL'). apply Mono.
    + intros n. rewrite (TL_ids_live t _ _ n HTL), (TL_ids_live t h' I' n HTL'). apply New.
    + intros c Hc. apply (proj2 (TL_bounds t _ _ HTL) i it c Hg O Hc).
  - (* the same entries in the same relative order, yet another list: impossible *)
    exfalso. destruct (Own i it Hg O) as (it' & Hg' & O' & _). rewrite (El' it' Hg' O') in K.
    apply Ne. symmetry. apply order_kept_same_set; [|exact K].
    intros x. rewrite (TL_ids_live t _ _ x HTL), (TL_ids_live t h' I' x HTL'). split; [apply Mono|apply Back].
Qed.

Lemma relinked_same : forall t h I h', TL t h' I -> (forall n, live h' n <-> live h n) -> fresh h' = fresh h ->
  relinked t h I h' I.
Proof.
  intros t h I h' HTL' Lv Fr.
  constructor; [split; [exact HTL'|apply frame_refl]|intros n; apply Lv|intros n Hn; left; apply Lv; exact Hn|rewrite Fr; apply Pos.le_refl|left; auto].
Qed.

Lemma relinked_refl : forall t h I, TL t h I -> relinked t h I h I.
Proof. intros t h I HTL. apply relinked_same; [exact HTL|tauto|reflexivity]. Qed.

(* What a preparatory step (nothing, or PutAux in one of its harmless cases) before a MoveTo*Aux of
   entry e guarantees: the iterators of t are left alone, and either e is an entry that did not exist
   before (no iterator can point at it), or the step did not change the list at all. *)
Definition prepped (t : nat) (h0 : ht) (I0 : itab) (h : ht) (J : itab) (e : positive) : Prop :=
  okstep t I0 (h, J) /\ (forall n, live h0 n -> live h n) /\
  (forall n, live h n -> live h0 n \/ (fresh h0 <= n)%positive) /\ (fresh h0 <= fresh h)%positive /\
  (forall i it, geti I0 i = Some it -> iown it = Some t -> geti J i = Some it) /\
  ((fresh h0 <= e)%positive \/ ((forall n, live h n -> live h0 n) /\ ids h = ids h0)).

Lemma prepped_same : forall t h0 I h e, TL t h I -> (forall n, live h n <-> live h0 n) -> fresh h = fresh h0 ->
  ids h = ids h0 -> prepped t h0 I h I e.
Proof.
  intros t h0 I h e HTL Lv Fr Ei. split; [apply okstep_id; exact HTL|]. split; [intros n; apply Lv|].
  split; [intros n Hn; left; apply Lv; exact Hn|]. split; [rewrite Fr; apply Pos.le_refl|].
  split; [auto|]. right. split; [intros n; apply Lv|exact Ei].
Qed.

Lemma prepped_refl : forall t h I e, TL t h I -> prepped t h I h I e.
Proof. intros t h I e HTL. apply prepped_same; [exact HTL|tauto|reflexivity|reflexivity]. Qed.

Lemma relinked_then_moved : forall t h0 I0 h J e l l' r, TL t h0 I0 -> prepped t h0 I0 h J e ->
  tinv h l -> moved h J e l l' r -> okstep t J r -> relinked t h0 I0 (fst r) (snd r).
Proof.
  intros t h0 I0 h J e l l' r HTL0 (O1 & Mono & New & Fr & Same & Cases) T (T' & [_ Sl] & (_ & _ & Mf & _) & D) O2.
  destruct O1 as [HTL1 F1]. cbn [fst snd] in HTL1, F1.
  constructor.
  - destruct r as [h2 I2]. eapply okstep_trans; [split; [exact HTL1|exact F1]|exact O2].
  - intros n Hn. apply Sl. apply Mono. exact Hn.
  - intros n Hn. apply Sl in Hn. apply New. exact Hn.
  - rewrite Mf. exact Fr.
  - destruct D as [[_ ->]|[Ne Ep]]; [left; exact Same|]. rewrite Ep.
    assert (G : forall i it, geti J i = Some it ->
                geti (patch_all h e J) i = Some it \/ (geti (patch_all h e J) i = Some (patch_iter h e it) /\ icookie it = Some e)).
    { intros i it Hg. rewrite patch_all_eq. destruct (in_dec Nat.eq_dec i (ilist h)) as [Hin|Hn].
      - rewrite map_its_in by (try apply (tl_nodup _ _ _ HTL1); assumption). rewrite Hg. cbn [option_map].
        unfold patch_iter at 1. destruct (opt_pos_eqb (icookie it) (Some e)) eqn:Eq.
        + right. split; [|apply opt_pos_eqb_true; exact Eq]. unfold patch_iter. rewrite Eq. reflexivity.
        + left. reflexivity.
      - rewrite map_its_notin by exact Hn. left. exact Hg. }
    destruct Cases as [Hfresh|[Back Eids]].
    + left. intros i it Hg O. destruct (G i it (Same i it Hg O)) as [H|[_ Hc]]; [exact H|exfalso].
      destruct (TL_bounds t h0 I0 HTL0) as [B C]. pose proof (B e (C i it e Hg O Hc)). lia.
    + right. split; [intros n Hn; apply Back; apply Sl; exact Hn|split].
      * rewrite (tinv_ids _ _ T'), <- Eids, (tinv_ids _ _ T). exact Ne.
      * intros i it Hg O. destruct (G i it (Same i it Hg O)) as [H|[H _]].
        -- exists it. auto.
        -- exists (patch_iter h e it). split; [exact H|]. destruct (patch_iter_own h e it) as (A & B & _). split; congruence.
Qed.

Lemma put_aux_prep : forall var dcap t h0 I0 k v, TL t h0 I0 ->
  (var = VPlain \/ find_key (ensure_allocated dcap h0) k = None) ->
  let r := put_aux var dcap h0 I0 k v in prepped t h0 I0 (pa_h r) (pa_i r) (pa_e r).
Proof.
  intros var dcap t h0 I0 k v HTL0 Hc. destruct (tl_tinv _ _ _ HTL0) as (l & T).
  pose proof (proj1 (put_aux_ok var dcap t h0 I0 k v HTL0)) as Ok.
  destruct (find_key (ensure_allocated dcap h0) k) as [e|] eqn:Ef.
  - destruct Hc as [Ev|Hn]; [|discriminate].
    destruct (put_aux_old var dcap t h0 I0 k v l e HTL0 T Ef) as (h1 & _ & T1 & HTL1 & Lv & Fr & E & _). cbn zeta in *.
    rewrite Ev in *. injection E as Eh Ei. rewrite Eh, Ei.
    apply prepped_same; [exact HTL1|exact Lv|exact Fr|rewrite (tinv_ids _ _ T1), (tinv_ids _ _ T); reflexivity].
  - destruct (put_aux_new var dcap t h0 I0 k v l T Ef) as (Ei & Ee & Fr & Lv & _). cbn zeta in *. rewrite Ei, Ee in *.
    split; [exact Ok|]. split; [intros n Hn; apply Lv; left; exact Hn|].
    split; [intros n Hn; apply Lv in Hn; destruct Hn as [Hn| ->]; [left; exact Hn|right; apply Pos.le_refl]|].
    split; [rewrite Fr; lia|]. split; [auto|left; apply Pos.le_refl].
Qed.

Lemma quiet_prep_move : forall w t i h J e mv P, WF w -> t < length (tabs w) -> mvspec t mv P ->
  prepped t (gett w t) (its w) h J e -> (exists l, tinv h l /\ In e l /\ P h l e) -> reg w i ->
  kept_keeps i w (put_ti w t (fst (mv h J e)) (snd (mv h J e))).
Proof.
  intros w t i h J e mv P W Ht Spec Prep (l & T & He & HP) R K.
  destruct (Spec h J l e (proj1 (proj1 Prep)) T He HP) as [(l' & M) O2].
  apply (calm_of_relinked w t _ _ i W Ht); [|exact R|exact K].
  apply (relinked_then_moved t (gett w t) (its w) h J e l l' (mv h J e) (wf_tabs _ W t Ht) Prep T M O2).
Qed.

Lemma put_aux_relinked : forall var dcap t h0 I0 k v, TL t h0 I0 ->
  relinked t h0 I0 (pa_h (put_aux var dcap h0 I0 k v)) (pa_i (put_aux var dcap h0 I0 k v)).
Proof.
  intros var dcap t h0 I0 k v HTL0. destruct (tl_tinv _ _ _ HTL0) as (l & T).
  destruct (find_key (ensure_allocated dcap h0) k) as [e|] eqn:Ef.
  - (* an existing key: the value is replaced, then the entry repositioned *)
    destruct (put_aux_old var dcap t h0 I0 k v l e HTL0 T Ef) as (h1 & He & T1 & HTL1 & Lv & Fr & E & _). cbn zeta in E.
    destruct (mvs_repos var t h1 I0 l e HTL1 T1 He I) as [(l' & M) O2].
    change (pa_h (put_aux var dcap h0 I0 k v)) with (fst (pa_h (put_aux var dcap h0 I0 k v), pa_i (put_aux var dcap h0 I0 k v))).
    change (pa_i (put_aux var dcap h0 I0 k v)) with (snd (pa_h (put_aux var dcap h0 I0 k v), pa_i (put_aux var dcap h0 I0 k v))) at 2.
    rewrite E. apply (relinked_then_moved t h0 I0 h1 I0 e l l' _ HTL0); [|exact T1|exact M|exact O2].
    apply prepped_same; [exact HTL1|exact Lv|exact Fr|rewrite (tinv_ids _ _ T1), (tinv_ids _ _ T); reflexivity].
  - destruct (put_aux_prep var dcap t h0 I0 k v HTL0 (or_intror Ef)) as (O & Mono & New & Fr & Same & _).
    constructor; [exact O|exact Mono|exact New|exact Fr|left; exact Same].
Qed.

Lemma sort_by_live_fresh : forall t h I cmp, TL t h I ->
  (forall y, live (sort_by h cmp) y <-> live h y) /\ fresh (sort_by h cmp) = fresh h.
Proof.
  intros t h I cmp HTL. destruct (tl_tinv _ _ _ HTL) as (l & T).
  unfold sort_by, relink.
  destruct (relink_from_spec (sort_ids h cmp (ids h)) (with_hd h (head_opt (sort_ids h cmp (ids h)))) None) as (_ & _ & _ & _ & [_ S] & (_ & _ & Mf & _)).
  - eapply Permutation_NoDup; [rewrite (tinv_ids h l T); apply sort_ids_perm|apply (lk_nodup _ _ (ti_linked _ _ T))].
  - intros y Hy. apply (lk_live _ _ (ti_linked _ _ T)). rewrite (tinv_ids h l T) in Hy.
    eapply Permutation_in; [apply Permutation_sym, sort_ids_perm|exact Hy].
  - split; [intros y; apply (S y)|exact Mf].
Qed.

Lemma sort_by_relinked : forall t h I cmp, TL t h I -> relinked t h I (sort_by h cmp) I.
Proof.
  intros t h I cmp HTL. destruct (sort_by_live_fresh t h I cmp HTL) as [Lv Fr].
  apply relinked_same; [apply sort_by_TL; exact HTL|exact Lv|exact Fr].
Qed.

Lemma sort_aux_facts : forall var t h I, TL t h I ->
  TL t (sort_aux var h) I /\ (forall y, live (sort_aux var h) y <-> live h y) /\ fresh (sort_aux var h) = fresh h.
Proof.
  intros var t h I HTL. split; [apply sort_aux_TL; exact HTL|].
  unfold sort_aux. destruct var; [split; [tauto|reflexivity]| |]; apply (sort_by_live_fresh t h I _ HTL).
Qed.

Lemma sort_aux_relinked : forall var t h I, TL t h I -> relinked t h I (sort_aux var h) I.
Proof. intros var t h I HTL. apply relinked_same; apply (sort_aux_facts var t h I HTL). Qed.

Lemma sas_relinked : forall v t h I (en sortnow : bool), TL t h I ->
  relinked t h I (if sortnow && en then sort_aux v (with_asort h en) else with_asort h en) I.
Proof.
  intros v t h I en sortnow HTL. pose proof (with_asort_TL t h I en HTL) as HA.
  assert (Lv : forall n, live (with_asort h en) n <-> live h n) by (intros n; unfold live, getn; cbn; tauto).
  destruct (sortnow && en); [|apply relinked_same; [exact HA|exact Lv|reflexivity]].
  destruct (sort_aux_facts v t _ I HA) as (HS & Lvs & Fr).
  apply relinked_same; [exact HS|intros n; rewrite Lvs; apply Lv|exact Fr].
Qed.

Lemma copy_one_new : forall we h kv,
  (forall n, live (copy_one we h kv) n -> live h n \/ (fresh h <= n)%positive) /\ (fresh h <= fresh (copy_one we h kv))%positive.
Proof.
  intros we h kv. unfold copy_one.
  destruct (if we then None else find_key h (fst kv)) as [e|].
  - destruct (meta_set_val h e (snd kv)) as (_ & _ & Mf & _). split; [|rewrite Mf; apply Pos.le_refl].
    intros n Hn. left. apply (live_set_val h e (snd kv) n). exact Hn.
  - unfold alloc_node. cbn zeta.
    set (h1 := mkHt (PositiveMap.add (fresh h) (mkNode (fst kv) (snd kv) None None) (nodes h)) (hd h) (tl h) (cnt h) (cap h) (Pos.succ (fresh h)) (asort h) (ilist h)).
    destruct (insert_same_data h1 (fresh h) (tl h1)) as [[_ Sl] (_ & _ & Mf & _)].
    split.
    + intros n Hn. change (live (insert_iter_entry h1 (fresh h) (tl h1)) n) in Hn. apply Sl in Hn.
      unfold live, getn, h1 in Hn. cbn [nodes] in Hn.
      destruct (Pos.eq_dec n (fresh h)) as [->|Hne]; [right; apply Pos.le_refl|left].
      rewrite PositiveMap.gso in Hn by exact Hne. exact Hn.
    + cbn [fresh with_cnt]. rewrite Mf. unfold h1. cbn [fresh]. lia.
Qed.

Lemma copy_fold_new : forall we src h,
  (forall n, live (fold_left (copy_one we) src h) n -> live h n \/ (fresh h <= n)%positive) /\
  (fresh h <= fresh (fold_left (copy_one we) src h))%positive.
Proof.
  intros we. induction src as [|kv src IH]; intros h; cbn [fold_left]; [split; [auto|apply Pos.le_refl]|].
  destruct (copy_one_new we h kv) as [N1 F1]. destruct (IH (copy_one we h kv)) as [N2 F2]. split.
  - intros n Hn. destruct (N2 n Hn) as [H|H]; [apply N1; exact H|right; lia].
  - lia.
Qed.

Lemma copy_from_relinked : forall var dcap t h I src srccap, TL t h I -> NoDup (map fst src) ->
  relinked t h I (fst (fst (copy_from var dcap h I src srccap false))) (snd (fst (copy_from var dcap h I src srccap false))).
Proof.
  intros var dcap t h I src srccap HTL Hnd.
  pose proof (copy_from_ok var dcap t h I src srccap false HTL Hnd) as O.
  unfold copy_from in *. destruct src as [|kv src']; [cbn [fst snd]; apply relinked_refl; exact HTL|].
  destruct (ensure_size_noshrink dcap h I (N.of_nat (cnt h + length (kv :: src')))) as (h2 & st & E & Rc).
  rewrite E in *. destruct (recap_facts t h h2 I Rc) as (_ & RTL & Lv2 & Fr2 & _). pose proof (RTL HTL) as HTL2.
  destruct (st =? 0); cbn [fst snd] in *; [|apply relinked_same; assumption].
  pose proof (copy_from_aux_TL t h2 I (kv :: src') HTL2 Hnd) as HTLc.
  destruct (sort_aux_facts var t _ I HTLc) as (_ & Lvs & Frs).
  destruct (tl_tinv _ _ _ HTL2) as (l & T).
  destruct (copy_fold_grows (cnt h2 =? 0) (kv :: src') h2 l T Hnd) as (_ & _ & Lvc).
  { intros Ez e He. apply Nat.eqb_eq in Ez. rewrite (ti_cnt _ _ T) in Ez. destruct l; [destruct He|discriminate]. }
  destruct (copy_fold_new (cnt h2 =? 0) (kv :: src') h2) as [Nc Fc].
  constructor; [exact O| | | |left; auto].
  - intros n Hn. apply Lvs. apply Lvc. apply Lv2. exact Hn.
  - intros n Hn. apply Lvs in Hn. destruct (Nc n Hn) as [H|H]; [left; apply Lv2; exact H|right; rewrite <- Fr2; exact H].
  - rewrite Frs, <- Fr2. exact Fc.
Qed.

Section Quiet.
Variable var : variant.
Variable dcap : N.

(* operations that relink surviving entries and are handled by the semantic premise *)
Definition relinking (o : op) : bool :=
  match o with
  | OPut _ _ _ | OCopyToTable _ _ _
  | OPutAtFront _ _ _ | OPutAtBack _ _ _ | OPutBefore _ _ _ _ | OPutBehind _ _ _ _ | OPutAtPos _ _ _ _
  | OMoveFront _ _ | OMoveBack _ _ | OMoveBefore _ _ _ | OMoveBehind _ _ _ | OMovePos _ _ _
  | OGetMoveFront _ _ | OGetMoveBack _ _ | OSortKey _ | OSortVal _ | OSort _ | OReposition _ _
  | OSetAutoSort _ _ _ | OCopyFrom _ _ _ | OMoveToTable _ _ _ => true
  | _ => false
  end.

Definition is_plain (v : variant) : bool := match v with VPlain => true | _ => false end.

(* the positional Put of an existing key on an auto-sorting class: two moves in one operation *)
Definition double_move (w : world) (o : op) : bool :=
  match o with
  | OPutAtFront t k _ | OPutAtBack t k _ | OPutBefore t k _ _ | OPutBehind t k _ _ | OPutAtPos t k _ _ =>
      negb (is_plain var) && (match find_key (gett w t) k with Some _ => true | None => false end)
  | _ => false
  end.

(* the operation leaves the relative order of the entries of iterator i's table unchanged *)
Definition kept (i : nat) (w : world) (o : op) : Prop :=
  order_keptb (it_list w i) (it_list (fst (step1 var dcap w o)) i) = true.

Definition quiet (i : nat) (w : world) (o : op) : Prop :=
  calm var dcap w o \/ (relinking o = true /\ double_move w o = false /\ kept i w o).

Definition dm_free (w : world) (t : nat) (k : Z) : Prop :=
  negb (is_plain var) && (match find_key (gett w t) k with Some _ => true | None => false end) = false.

Lemma double_move_calm : forall w t k, dm_free w t k -> put_calm var dcap w t k.
Proof.
  intros w t k H. unfold put_calm, dm_free in *. rewrite find_key_ensure_allocated. destruct (find_key (gett w t) k); [|right; reflexivity].
  rewrite andb_true_r in H. left. destruct var; [reflexivity|discriminate|discriminate].
Qed.

Lemma quiet_move : forall w t i k mv (x : positive -> out) (y : out), WF w -> t < length (tabs w) ->
  mvspec t mv (fun _ _ _ => True) -> reg w i ->
  let w' := fst (match find_key (gett w t) k with
                 | Some e => let '(h1, I1) := mv (gett w t) (its w) e in (put_ti w t h1 I1, x e)
                 | None => (w, y)
                 end) in
  kept_keeps i w w'.
Proof.
  intros w t i k mv x y W Ht Spec R. pose proof (wf_tabs _ W t Ht) as HTL. cbv zeta.
  destruct (find_key (gett w t) k) as [e|] eqn:Ef; [|intros _; apply keeps_refl; exact R]. rewrite fst_put2.
  apply (quiet_prep_move w t i _ _ e mv _ W Ht Spec (prepped_refl t _ _ e HTL)); [|exact R].
  destruct (TL_find_in t _ _ k e HTL Ef) as (l & T & He). exists l. auto.
Qed.

Lemma quiet_put_move : forall w t i k v mv P, WF w -> t < length (tabs w) -> mvspec t mv P -> dm_free w t k -> reg w i ->
  let r := put_aux var dcap (gett w t) (its w) k v in
  (forall l, tinv (pa_h r) l -> In (pa_e r) l -> P (pa_h r) l (pa_e r)) ->
  let w' := put_ti w t (fst (mv (pa_h r) (pa_i r) (pa_e r))) (snd (mv (pa_h r) (pa_i r) (pa_e r))) in
  kept_keeps i w w'.
Proof.
  intros w t i k v mv P W Ht Spec Fc R r HP. pose proof (wf_tabs _ W t Ht) as HTL.
  apply (quiet_prep_move w t i _ _ _ mv P W Ht Spec (put_aux_prep var dcap t _ _ k v HTL (double_move_calm w t k Fc))); [|exact R].
  destruct (put_aux_ok var dcap t _ _ k v HTL) as [O1 Le]. destruct (TL_live_in _ _ _ _ (proj1 O1) Le) as (l & T & He).
  exists l. split; [exact T|split; [exact He|apply HP; assumption]].
Qed.

Lemma quiet_put_beside : forall w t i k f v mv k2, WF w -> t < length (tabs w) -> mvspec t mv (beside f) ->
  dm_free w t k -> reg w i -> let r := put_aux var dcap (gett w t) (its w) k v in
  find_key (pa_h r) k2 = Some f -> pa_e r <> f ->
  let w' := put_ti w t (fst (mv (pa_h r) (pa_i r) (pa_e r))) (snd (mv (pa_h r) (pa_i r) (pa_e r))) in
  kept_keeps i w w'.
Proof.
  intros w t i k f v mv k2 W Ht Spec Fc R r Ef Hne. apply (quiet_put_move w t i k v _ _ W Ht Spec Fc R). fold r.
  intros l T He. split; [apply (find_key_some_in _ l k2 f T Ef)|congruence].
Qed.

Lemma quiet_move_beside : forall w t i k k2 e f mv, WF w -> t < length (tabs w) -> mvspec t mv (beside f) -> reg w i ->
  find_key (gett w t) k = Some e -> find_key (gett w t) k2 = Some f -> e <> f ->
  let w' := put_ti w t (fst (mv (gett w t) (its w) e)) (snd (mv (gett w t) (its w) e)) in
  kept_keeps i w w'.
Proof.
  intros w t i k k2 e f mv W Ht Spec R Ef Ef2 Hne. pose proof (wf_tabs _ W t Ht) as HTL.
  apply (quiet_prep_move w t i _ _ e mv _ W Ht Spec (prepped_refl t _ _ e HTL)); [|exact R].
  destruct (tl_tinv _ _ _ HTL) as (l & T). exists l.
  split; [exact T|split; [apply (find_key_some_in _ l k e T Ef)|split; [apply (find_key_some_in _ l k2 f T Ef2)|congruence]]].
Qed.

Lemma quiet_step : forall w o i, WF w -> quiet i w o -> touches i o = false -> reg w i ->
  calm_rel w (fst (step1 var dcap w o)) i /\ reg (fst (step1 var dcap w o)) i.
Proof.
  intros w o i W [C|(Rl & Fc & K)] Ht R; [apply calm_step; assumption|].
  pose proof (wf_tabs _ W) as WT. unfold kept in K. revert K.
  assert (Same : kept_keeps i w w) by (intros _; apply keeps_refl; exact R).
  change (kept_keeps i w (fst (step1 var dcap w o))).
  destruct o; try discriminate Rl; cbn [double_move] in Fc; cbn [step1]; try vt ltac:(exact Same).
  - (* Put *) rewrite fst_put4.
    apply (calm_of_relinked w t _ _ i W V1 (put_aux_relinked var dcap t _ _ k v (WT t V1)) R).
  - (* PutAtFront *) rewrite fst_put4k, fst_put2.
    apply (quiet_put_move w t i k v _ _ W V1 (mvs_front t) Fc R). auto.
  - (* PutAtBack *) rewrite fst_put4k, fst_put2.
    apply (quiet_put_move w t i k v _ _ W V1 (mvs_back t) Fc R). auto.
  - (* PutBefore *) rewrite fst_put4k. apply (put_beside_cases (kept_keeps i w));
      [apply (calm_of_relinked w t _ _ i W V1 (put_aux_relinked var dcap t _ _ k v (WT t V1)) R)|].
    intros f. apply (quiet_put_beside w t i k f v _ k2 W V1 (mvs_before t f) Fc R).
  - (* PutBehind *) rewrite fst_put4k. apply (put_beside_cases (kept_keeps i w));
      [apply (calm_of_relinked w t _ _ i W V1 (put_aux_relinked var dcap t _ _ k v (WT t V1)) R)|].
    intros f. apply (quiet_put_beside w t i k f v _ k2 W V1 (mvs_behind t f) Fc R).
  - (* PutAtPos *) rewrite fst_put4k, fst_put2.
    apply (quiet_put_move w t i k v _ _ W V1 (mvs_pos t idx) Fc R). auto.
  - (* MoveFront *) apply (quiet_move w t i k _ _ _ W V1 (mvs_front t) R).
  - (* MoveBack *) apply (quiet_move w t i k _ _ _ W V1 (mvs_back t) R).
  - (* MoveBefore *) apply (move_beside_cases (kept_keeps i w)); [exact Same|].
    intros e f. apply (quiet_move_beside w t i k k2 e f _ W V1 (mvs_before t f) R).
  - (* MoveBehind *) apply (move_beside_cases (kept_keeps i w)); [exact Same|].
    intros e f. apply (quiet_move_beside w t i k k2 e f _ W V1 (mvs_behind t f) R).
  - (* MovePos *) apply (quiet_move w t i k _ _ _ W V1 (mvs_pos t idx) R).
  - (* GetMoveFront *) apply (quiet_move w t i k _ _ _ W V1 (mvs_front t) R).
  - (* GetMoveBack *) apply (quiet_move w t i k _ _ _ W V1 (mvs_back t) R).
  - (* SortKey *) apply (calm_of_relinked w t _ _ i W V1 (sort_by_relinked t _ _ cmp_key (WT t V1)) R).
  - (* SortVal *) apply (calm_of_relinked w t _ _ i W V1 (sort_by_relinked t _ _ cmp_val (WT t V1)) R).
  - (* Sort *) apply (calm_of_relinked w t _ _ i W V1 (sort_aux_relinked var t _ _ (WT t V1)) R).
  - (* Reposition *) apply (quiet_move w t i k _ _ _ W V1 (mvs_repos var t) R).
  - (* SetAutoSort *)
    destruct var; [exact Same| |]; (destruct (Bool.eqb en (asort (gett w t))); [exact Same|];
      apply (calm_of_relinked w t _ _ i W V1 (sas_relinked _ t _ _ en sortnow (WT t V1)) R)).
  - (* CopyFrom *) destruct (t =? u); [exact Same|]. rewrite fst_put3. destruct clearfirst.
    + intros _. rewrite copy_from_its. apply (keeps_emptied w t _ i W V1 R).
    + apply (calm_of_relinked w t _ _ i W V1 (copy_from_relinked var dcap t _ _ _ _ (WT t V1) (abs_keys_nodup w u W V2)) R).
  - (* MoveToTable: a Put into tab[u], then the removal from tab[t] *)
    destruct (find_key (gett w t) k) as [e|] eqn:Ef; [|exact Same].
    destruct (t =? u) eqn:Etu; [exact Same|]. apply Nat.eqb_neq in Etu.
    destruct (val_of (gett w t) e) as [v|]; [|exact Same]. rewrite fst_put4k.
    pose proof (put_aux_relinked var dcap u _ _ k v (WT u V2)) as Rel.
    set (hu := pa_h _) in *. set (I1 := pa_i _) in *. set (w1 := put_ti w u hu I1).
    pose proof (WF_okstep w u (hu, I1) W V2 (rl_ok _ _ _ _ _ Rel)) as W1. cbn [fst snd] in W1. fold w1 in W1.
    assert (V1' : t < length (tabs w1)) by (unfold w1; rewrite len_put; exact V1).
    assert (Gt : gett w1 t = gett w t) by (unfold w1; apply gett_put_other; congruence).
    assert (Le : live (gett w1 t) e) by (rewrite Gt; apply (TL_find_live t _ (its w) k e (WT t V1) Ef)).
    pose proof (cstep_remove_entry t _ _ e (wf_tabs _ W1 t V1') Le) as S2. rewrite Gt in S2. change (its w1) with I1 in S2.
    destruct (remove_entry (gett w t) I1 e) as [ht1 I2]. change (fst (?[x], OStatus 0)) with (put_ti w1 t ht1 I2). intros K.
    (* the lists compared by K: the removal from tab[t] changes nothing for an iterator of tab[u],
       the Put into tab[u] nothing for the others *)
    assert (K1 : order_keptb (it_list w i) (it_list w1 i) = true).
    { destruct R as (it & Hg & _). destruct (rl_ok _ _ _ _ _ Rel) as [_ Fu]. cbn [snd] in Fu.
      destruct (option_eq_dec_nat (iown it) (Some u)) as [O|O].
      - destruct (fr_mine _ _ _ Fu i it Hg O) as (it1 & Hg1 & O1).
        rewrite <- (it_list_put_other w1 t ht1 I2 i it1 (proj2 (cs_ok _ _ _ _ S2)) Hg1); [exact K|destruct O1 as [O1|[O1 _]]; congruence].
      - unfold w1. rewrite (it_list_put_other w u hu I1 i it Fu Hg O). apply order_keptb_refl. }
    pose proof (calm_of_relinked w u hu I1 i W V2 Rel R K1) as C1. fold w1 in C1.
    rewrite <- Gt in S2. exact (keeps_trans i w w1 _ W C1 (keeps_cstep w1 t (ht1, I2) i V1' S2 (proj2 C1))).
  - (* CopyToTable *) destruct (find_key (gett w t) k) as [e|] eqn:Ef; [|exact Same].
    destruct (t =? u); [exact Same|]. destruct (val_of (gett w t) e) as [v|]; [|exact Same]. rewrite fst_put4.
    apply (calm_of_relinked w u _ _ i W V2 (put_aux_relinked var dcap u _ _ k v (WT u V2)) R).
Qed.

End Quiet.
