(* C09 -- the world invariant [WF] (every table well linked, every registered iterator's cookie a
   live entry of its own table, iterator lists and owner fields consistent) and the generic
   lemmas to re-establish it: after a step on one table ([WF_table_step]) and after a change to one
   iterator object ([WF_slot]: unregistering / destroying, registering, advancing). *)
From Coq Require Import List Arith ZArith NArith PArith Bool Lia FMapPositive Permutation.
From Muscle Require Import Cont.HtModel Cont.HtStep Cont.HtLemmas Cont.HtRepr Cont.HtWalk Cont.HtIters
                           Cont.HtTable Cont.HtMoves Cont.HtPut.
Import ListNotations.

Record WF (w : world) : Prop := mkWF {
  wf_tabs : forall t, t < length (tabs w) -> TL t (gett w t) (its w);
  wf_its : forall i it, geti (its w) i = Some it ->
             match iown it with Some t => t < length (tabs w) | None => icookie it = None end }.

Lemma gett_put_same : forall w t h I, t < length (tabs w) -> gett (put_ti w t h I) t = h.
Proof. intros. unfold gett, put_ti. cbn. apply nth_upd_nth_same. assumption. Qed.
Lemma gett_put_other : forall w t u h I, t <> u -> gett (put_ti w t h I) u = gett w u.
Proof. intros. unfold gett, put_ti. cbn. apply nth_upd_nth_other. assumption. Qed.
Lemma len_put : forall w t h I, length (tabs (put_ti w t h I)) = length (tabs w).
Proof. intros. unfold put_ti. cbn. apply upd_nth_length. Qed.
Lemma its_put : forall w t h I, its (put_ti w t h I) = I.
Proof. reflexivity. Qed.
Lemma sett_as_put : forall w t h, sett w t h = put_ti w t h (its w).
Proof. reflexivity. Qed.
Lemma valid_t_lt : forall w t, valid_t w t = true -> t < length (tabs w).
Proof. intros w t H. apply Nat.ltb_lt. exact H. Qed.
Lemma valid_i_lt : forall w i, valid_i w i = true -> i < length (its w).
Proof. intros w i H. apply Nat.ltb_lt. exact H. Qed.

Lemma fst_put2 : forall w t (r : ht * itab) (x : out),
  fst (let '(h, J) := r in (put_ti w t h J, x)) = put_ti w t (fst r) (snd r).
Proof. intros w t [h J] x. reflexivity. Qed.
Lemma fst_put3 : forall w t (r : ht * itab * nat) (f : nat -> out),
  fst (let '(h, J, st) := r in (put_ti w t h J, f st)) = put_ti w t (fst (fst r)) (snd (fst r)).
Proof. intros w t [[h J] st] f. reflexivity. Qed.
Lemma fst_put4 : forall w t (r : ht * itab * positive * option Z) (f : option Z -> out),
  fst (let '(h, J, _, old) := r in (put_ti w t h J, f old)) = put_ti w t (pa_h r) (pa_i r).
Proof. intros w t [[[h J] e] old] f. reflexivity. Qed.

Lemma TL_live_in : forall t h I e, TL t h I -> live h e -> exists l, tinv h l /\ In e l.
Proof. intros t h I e HTL Le. destruct (tl_tinv _ _ _ HTL) as (l & T). exists l. split; [exact T|apply (ti_dom _ _ T); exact Le]. Qed.

Lemma TL_find_in : forall t h I k e, TL t h I -> find_key h k = Some e -> exists l, tinv h l /\ In e l.
Proof.
  intros t h I k e HTL Hf. destruct (tl_tinv _ _ _ HTL) as (l & T). exists l. split; [exact T|].
  apply (find_key_some_in h l k e T Hf).
Qed.

Lemma TL_find_live : forall t h I k e, TL t h I -> find_key h k = Some e -> live h e.
Proof.
  intros t h I k e HTL Hf. destruct (TL_find_in _ _ _ _ _ HTL Hf) as (l & T & He).
  apply (lk_live _ _ (ti_linked _ _ T)). exact He.
Qed.

Lemma TL_end_live : forall t h I (bw : bool) e, TL t h I -> (if bw then tl h else hd h) = Some e -> live h e.
Proof.
  intros t h I bw e HTL He. destruct (tl_tinv _ _ _ HTL) as (l & T). pose proof (ti_linked _ _ T) as L.
  apply (lk_live _ _ L). destruct bw; [apply last_of_in; rewrite <- (lk_tl _ _ L)|apply head_opt_in; rewrite <- (lk_hd _ _ L)]; exact He.
Qed.

Lemma remove_entry_ok : forall t h I e, TL t h I -> live h e -> okstep t I (remove_entry h I e).
Proof. intros t h I e HTL Le. pose proof (remove_entry_TL t h I e HTL Le) as R. destruct (remove_entry h I e). exact R. Qed.

Lemma option_eq_dec_nat : forall (a b : option nat), {a = b} + {a <> b}.
Proof. decide equality. apply Nat.eq_dec. Qed.

(* a frame read backwards: a record of I' is an untouched record of another owner, or comes from a record of t *)
Lemma frame_inv : forall t I I' i it', frame t I I' -> geti I' i = Some it' ->
  (geti I i = Some it' /\ iown it' <> Some t) \/
  (exists it, geti I i = Some it /\ iown it = Some t /\ (iown it' = Some t \/ (iown it' = None /\ icookie it' = None))).
Proof.
  intros t I I' i it' [FL FN FO FM] Hg'. destruct (geti I i) as [it|] eqn:Hg; [|rewrite (FN i Hg) in Hg'; discriminate].
  destruct (option_eq_dec_nat (iown it) (Some t)) as [O|O].
  - right. destruct (FM i it Hg O) as (it2 & Hg2 & H). exists it. rewrite Hg' in Hg2. inversion Hg2; subst. auto.
  - left. rewrite (FO i it Hg O) in Hg'. inversion Hg'; subst. auto.
Qed.

Lemma TL_frame_other : forall t u h I I', TL u h I -> frame t I I' -> u <> t -> TL u h I'.
Proof.
  intros t u h I I' [HT Hnd Hreg Hown] F Hut. constructor.
  - exact HT.
  - exact Hnd.
  - intros i Hi. destruct (Hreg i Hi) as (it & Hg & O & R). exists it. split; [|auto].
    apply (fr_other _ _ _ F); [exact Hg|congruence].
  - intros i it' Hg' O'. destruct (frame_inv t I I' i it' F Hg') as [[Hg _]|(it & _ & _ & [O2|[O2 _]])];
      [apply (Hown i it' Hg O')|congruence..].
Qed.

Lemma WF_table_step : forall w t h' I', WF w -> t < length (tabs w) ->
  TL t h' I' -> frame t (its w) I' -> WF (put_ti w t h' I').
Proof.
  intros w t h' I' [WT WI] Ht HTL F. constructor.
  - intros u Hu. rewrite len_put in Hu. rewrite its_put. destruct (Nat.eq_dec u t) as [->|Hut].
    + rewrite gett_put_same by exact Ht. exact HTL.
    + rewrite gett_put_other by congruence. eapply TL_frame_other; [apply WT; exact Hu|exact F|exact Hut].
  - intros i it' Hg'. rewrite its_put in Hg'. rewrite len_put.
    destruct (frame_inv t _ _ i it' F Hg') as [[Hg _]|(it & _ & _ & [O2|[O2 C2]])]; rewrite ?O2; [apply (WI i it' Hg)|exact Ht|exact C2].
Qed.

Lemma WF_iter_TL : forall w i it t, WF w -> geti (its w) i = Some it -> iown it = Some t -> TL t (gett w t) (its w).
Proof. intros w i it t W Hg O. apply (wf_tabs _ W). pose proof (wf_its _ W i it Hg) as P. rewrite O in P. exact P. Qed.

Lemma WF_okstep : forall w t r, WF w -> t < length (tabs w) -> okstep t (its w) r -> WF (put_ti w t (fst r) (snd r)).
Proof. intros w t r W Ht [A B]. apply WF_table_step; assumption. Qed.

(* a table emptied by Clear, by destruction or for a move: every registered iterator is detached, and
   one that is not registered has no cookie *)
Lemma emptied_ok : forall t h I c a, TL t h I ->
  okstep t I (mkHt (PositiveMap.empty node) None None 0 c (fresh h) a [], detach_all h I).
Proof.
  intros t h I c a HTL. destruct (clear_ok t 0%N h I true HTL) as [[_ _ _ Hown] F]. cbn [fst snd clear_tab] in *.
  split; [|exact F]. constructor; [exists []; apply tinv_empty|constructor|intros i []|].
  intros i it Hg O. destruct (Hown i it Hg O) as [A B]. split; [exact A|].
  intros c0 Hc. destruct (B c0 Hc) as [R _]. destruct (A R).
Qed.

Lemma nth_repeat' : forall A (x d : A) n i, i < n -> nth i (repeat x n) d = x.
Proof. intros A x d n. induction n as [|n IH]; intros i H; [lia|]. destruct i; [reflexivity|]. cbn. apply IH. lia. Qed.

Lemma geti_repeat_none : forall n i, geti (repeat None n) i = None.
Proof.
  intros n i. unfold geti. destruct (Nat.lt_ge_cases i n) as [H|H].
  - apply nth_repeat'. exact H.
  - apply nth_overflow. rewrite repeat_length. exact H.
Qed.

Lemma WF_init : forall dcap nt ni, WF (init_world dcap nt ni).
Proof.
  intros dcap nt ni. constructor.
  - intros t Ht. unfold init_world in *. cbn in *. rewrite repeat_length in Ht.
    unfold gett. cbn. rewrite nth_repeat' by exact Ht. constructor.
    + exists []. apply tinv_empty.
    + constructor.
    + intros i [].
    + intros i it Hg. change (geti (repeat None ni) i = Some it) in Hg. rewrite geti_repeat_none in Hg. discriminate.
  - intros i it Hg. change (geti (repeat None ni) i = Some it) in Hg. rewrite geti_repeat_none in Hg. discriminate.
Qed.

(* case split on the validity tests of an operation; [tac] closes the case of an invalid index; the
   bounds of the valid case are named V1 : t < length (tabs w) and, for a second table, V2 *)
Ltac vt tac :=
  match goal with
  | |- context [valid_t ?w ?t && valid_t ?w ?u] =>
      destruct (valid_t w t) eqn:?V1; [apply valid_t_lt in V1|cbn [andb fst]; tac];
      destruct (valid_t w u) eqn:?V2; [apply valid_t_lt in V2|cbn [andb fst]; tac]; cbn [andb] in *
  | |- context [valid_t ?w ?t] => destruct (valid_t w t) eqn:?V1; [apply valid_t_lt in V1|cbn [fst]; tac]
  end.

Lemma gett_sett_same : forall w t h, t < length (tabs w) -> gett (sett w t h) t = h.
Proof. intros. rewrite sett_as_put. apply gett_put_same. assumption. Qed.
Lemma gett_sett_other : forall w t u h, t <> u -> gett (sett w t h) u = gett w u.
Proof. intros. rewrite sett_as_put. apply gett_put_other. assumption. Qed.
Lemma gett_seti_w : forall w I t, gett (seti_w w I) t = gett w t.
Proof. reflexivity. Qed.

Lemma in_remove_nat : forall x y l, In y (remove_nat x l) <-> In y l /\ y <> x.
Proof.
  intros x y l. unfold remove_nat. rewrite filter_In, negb_true_iff, Nat.eqb_neq. tauto.
Qed.

Lemma its_unregister : forall w i, its (unregister w i) = its w.
Proof.
  intros w i. unfold unregister. destruct (geti (its w) i) as [it|]; [|reflexivity].
  destruct (inoreg it); [reflexivity|]. destruct (iown it); reflexivity.
Qed.

Lemma tabs_unregister_len : forall w i, length (tabs (unregister w i)) = length (tabs w).
Proof.
  intros w i. unfold unregister. destruct (geti (its w) i) as [it|]; [|reflexivity].
  destruct (inoreg it); [reflexivity|]. destruct (iown it); [|reflexivity]. unfold sett. cbn. apply upd_nth_length.
Qed.

Lemma tinv_with_ilist : forall h l il, tinv h l -> tinv (with_ilist h il) l.
Proof. intros h l il [L C D F K]. constructor; try assumption. apply (linked_ext _ _ l L); reflexivity. Qed.

Lemma with_ilist_same : forall h, h = with_ilist h (ilist h).
Proof. intros []. reflexivity. Qed.

(* UnregisterIterator leaves every table as it is except for its registration list, which loses i
   (and did not hold i in the first place unless the table is the owner of a registered i) *)
Lemma unregister_view : forall w i t, WF w -> t < length (tabs w) ->
  exists il, gett (unregister w i) t = with_ilist (gett w t) il /\ NoDup il /\
    (forall j, j <> i -> (In j il <-> In j (ilist (gett w t)))) /\ ~ In i il.
Proof.
  intros w i t W Ht. destruct (wf_tabs _ W t Ht) as [_ Hnd Hreg _].
  assert (Keep : (forall it, geti (its w) i = Some it -> inoreg it = false -> iown it <> Some t) ->
                 exists il, gett w t = with_ilist (gett w t) il /\ NoDup il /\
                   (forall j, j <> i -> (In j il <-> In j (ilist (gett w t)))) /\ ~ In i il).
  { intros Hn. exists (ilist (gett w t)). split; [apply with_ilist_same|split; [exact Hnd|split; [tauto|]]].
    intros Hin. destruct (Hreg i Hin) as (it & Hg & O & Rg). apply (Hn it Hg Rg O). }
  unfold unregister. destruct (geti (its w) i) as [it|] eqn:Hg; [|apply Keep; discriminate].
  destruct (inoreg it) eqn:Rg; [apply Keep; intros it' E; inversion E; congruence|].
  destruct (iown it) as [u|] eqn:O; [|apply Keep; intros it' E; inversion E; congruence].
  destruct (Nat.eq_dec u t) as [->|Hut].
  - rewrite gett_sett_same by exact Ht. exists (remove_nat i (ilist (gett w t))).
    split; [reflexivity|split; [apply NoDup_filter; exact Hnd|split]].
    + intros j Hj. rewrite in_remove_nat. tauto.
    + rewrite in_remove_nat. tauto.
  - rewrite gett_sett_other by exact Hut. apply Keep. intros it' E _. inversion E; subst. congruence.
Qed.

Lemma unregister_tinv : forall w i t, WF w -> t < length (tabs w) ->
  exists l, tinv (gett (unregister w i) t) l /\ tinv (gett w t) l.
Proof.
  intros w i t W Ht. destruct (unregister_view w i t W Ht) as (il & -> & _).
  destruct (tl_tinv _ _ _ (wf_tabs _ W t Ht)) as (l & T). exists l. split; [apply tinv_with_ilist|]; exact T.
Qed.

(* Table t of w' is table t of w but for its registration list, which differs at most in whether it
   holds i, and holds i exactly if x is a registered iterator of t. *)
Definition lists_slot (w w' : world) (i : nat) (x : option iter) (t : nat) : Prop :=
  exists il, gett w' t = with_ilist (gett w t) il /\ NoDup il /\
    (forall j, j <> i -> (In j il <-> In j (ilist (gett w t)))) /\
    (In i il <-> exists it, x = Some it /\ iown it = Some t /\ inoreg it = false).

Lemma lists_slot_unregister : forall w w' i x t, WF w -> t < length (tabs w) ->
  gett w' t = gett (unregister w i) t -> (forall it, x = Some it -> iown it = Some t -> inoreg it = true) ->
  lists_slot w w' i x t.
Proof.
  intros w w' i x t W Ht E' Hx. destruct (unregister_view w i t W Ht) as (il & E & Hnd & Oth & Ni). exists il. rewrite E'.
  split; [exact E|split; [exact Hnd|split; [exact Oth|split; [contradiction|]]]].
  intros (it & Ex & O & R). rewrite (Hx it Ex O) in R. discriminate.
Qed.

(* The record in slot i is replaced by x: the invariant stays if the registration lists follow
   ([lists_slot]) and the cookie of x is an entry of the table x names as its owner. *)
Lemma WF_slot : forall w w' i x, WF w -> i < length (its w) ->
  its w' = seti (its w) i x -> length (tabs w') = length (tabs w) ->
  (forall t, t < length (tabs w) -> lists_slot w w' i x t) ->
  (forall it, x = Some it -> match iown it with
     | Some t => t < length (tabs w) /\ forall c, icookie it = Some c -> inoreg it = false /\ live (gett w t) c
     | None => icookie it = None end) ->
  WF w'.
Proof.
  intros w w' i x [WT WI] Hi EI EL Tabs Hx. constructor.
  - intros t Ht. rewrite EL in Ht. rewrite EI. destruct (Tabs t Ht) as (il & -> & Hnd & Oth & Self).
    destruct (WT t Ht) as [HT _ Hreg Hown]. constructor; cbn [ilist with_ilist].
    + destruct HT as (l & T). exists l. apply tinv_with_ilist. exact T.
    + exact Hnd.
    + intros j Hj. destruct (Nat.eq_dec j i) as [->|Hji].
      * destruct (proj1 Self Hj) as (it & -> & O & R). exists it. rewrite geti_seti_same by exact Hi. auto.
      * rewrite geti_seti_other by congruence. apply Hreg. apply (Oth j Hji). exact Hj.
    + intros j it Hg O. destruct (Nat.eq_dec j i) as [->|Hji].
      * rewrite geti_seti_same in Hg by exact Hi. subst x. split; [intros R; apply Self; exists it; auto|].
        specialize (Hx it eq_refl). rewrite O in Hx. apply Hx.
      * rewrite geti_seti_other in Hg by congruence. destruct (Hown j it Hg O) as [A B].
        split; [intros R; apply (Oth j Hji); apply A; exact R|exact B].
  - intros j it Hg. rewrite EI in Hg. rewrite EL. destruct (Nat.eq_dec j i) as [->|Hji].
    + rewrite geti_seti_same in Hg by exact Hi. specialize (Hx it Hg). destruct (iown it); [apply Hx|exact Hx].
    + rewrite geti_seti_other in Hg by congruence. apply (WI j it Hg).
Qed.

Lemma subseq_live : forall w t h c bw c', TL t h (its w) -> live h c -> subseq h (Some c) bw = Some c' -> live h c'.
Proof.
  intros w t h c bw c' HTL Lc Hs. destruct (tl_tinv _ _ _ HTL) as (l & T).
  pose proof (ti_dom _ _ T c Lc) as Hc.
  destruct (subseq_in_list h l c bw c' (ti_linked _ _ T) Hc Hs) as [Hin _].
  apply (lk_live _ _ (ti_linked _ _ T)). exact Hin.
Qed.

Lemma WF_cookie : forall w i it c, WF w -> geti (its w) i = Some it -> icookie it = Some c ->
  inoreg it = false /\ exists t, iown it = Some t /\ t < length (tabs w) /\ live (gett w t) c.
Proof.
  intros w i it c [WT WI] Hg Hc. pose proof (WI i it Hg) as P. destruct (iown it) as [t|] eqn:O; [|congruence].
  destruct (tl_own _ _ _ (WT t P) i it Hg O) as [_ B]. destruct (B c Hc) as [R L]. split; [exact R|].
  exists t. auto.
Qed.

Lemma WF_iter_update : forall w i it it', WF w -> geti (its w) i = Some it ->
  iown it' = iown it -> inoreg it' = inoreg it ->
  (forall c, icookie it' = Some c -> inoreg it = false /\ exists t, iown it = Some t /\ live (gett w t) c) ->
  WF (seti_w w (seti (its w) i (Some it'))).
Proof.
  intros w i it it' W Hg Eo En Hc. pose proof (geti_some_lt _ _ _ Hg) as Hi.
  apply (WF_slot w (seti_w w (seti (its w) i (Some it'))) i (Some it') W Hi eq_refl eq_refl).
  - intros t Ht. exists (ilist (gett w t)). destruct (wf_tabs _ W t Ht) as [_ Hnd Hreg Hown].
    split; [apply with_ilist_same|split; [exact Hnd|split; [tauto|split]]].
    + intros Hin. destruct (Hreg i Hin) as (it0 & Hg0 & O & R). exists it'. split; [reflexivity|]. split; congruence.
    + intros (it0 & E & O & R). inversion E; subst it0. apply (Hown i it Hg); congruence.
  - intros it0 E. inversion E; subst it0. rewrite Eo. pose proof (wf_its _ W i it Hg) as P.
    destruct (iown it) as [t|] eqn:O.
    + split; [exact P|]. intros c Hk. destruct (Hc c Hk) as [R (t' & O' & L)]. inversion O'; subst t'. split; [congruence|exact L].
    + destruct (icookie it') as [c|] eqn:Ek; [|reflexivity]. destruct (Hc c eq_refl) as [_ (t' & O' & _)]. discriminate.
Qed.

Lemma WF_replace : forall w i x, WF w -> i < length (its w) ->
  (forall it, x = Some it -> iown it = None /\ icookie it = None) ->
  WF (seti_w (unregister w i) (seti (its (unregister w i)) i x)).
Proof.
  intros w i x W Hi Hx. apply (WF_slot w _ i x W Hi); [cbn; rewrite its_unregister; reflexivity|apply tabs_unregister_len| |].
  - intros t Ht. apply lists_slot_unregister; [exact W|exact Ht|reflexivity|].
    intros it Ex O. destruct (Hx it Ex). congruence.
  - intros it Ex. destruct (Hx it Ex) as [-> Hk]. exact Hk.
Qed.

Lemma WF_reregister : forall w i t c bw nr scr, WF w -> i < length (its w) -> t < length (tabs w) ->
  (forall c0, c = Some c0 -> nr = false /\ live (gett w t) c0) ->
  WF (register (unregister w i) i t c bw nr scr).
Proof.
  intros w i t c bw nr scr W Hi Ht Hc.
  set (reg' := match c with Some _ => negb nr | None => false end).
  apply (WF_slot w _ i (Some (mkIter (Some t) c bw (negb reg') scr)) W Hi).
  - unfold register, reg'. rewrite its_unregister. destruct nr; [|destruct c]; try reflexivity.
    destruct c as [c0|]; [destruct (Hc c0 eq_refl); discriminate|reflexivity].
  - unfold register. destruct nr; [|destruct c]; cbn; rewrite ?upd_nth_length; apply tabs_unregister_len.
  - intros u Hu.
    assert (Plain : gett (register (unregister w i) i t c bw nr scr) u = gett (unregister w i) u -> (reg' = false \/ u <> t) ->
                    lists_slot w (register (unregister w i) i t c bw nr scr) i (Some (mkIter (Some t) c bw (negb reg') scr)) u).
    { intros E Hr. apply lists_slot_unregister; [exact W|exact Hu|exact E|].
      intros it Ex O. inversion Ex; subst it. cbn in *. destruct Hr as [->|Hr]; [reflexivity|congruence]. }
    unfold register in *. destruct nr; [apply Plain; [reflexivity|left; unfold reg'; destruct c; reflexivity]|].
    destruct c as [c0|]; [|apply Plain; [reflexivity|left; reflexivity]].
    destruct (Nat.eq_dec u t) as [->|Hut]; [|apply Plain; [rewrite gett_sett_other by congruence; reflexivity|right; exact Hut]].
    destruct (unregister_view w i t W Hu) as (il & E & Hnd & Oth & Ni). exists (i :: il).
    rewrite gett_sett_same by (cbn; rewrite tabs_unregister_len; exact Ht). rewrite gett_seti_w, E. cbn [with_ilist ilist].
    split; [reflexivity|split; [constructor; assumption|split]].
    + intros j Hj. cbn [In]. rewrite <- (Oth j Hj). intuition congruence.
    + split; [intros _; eexists; split; [reflexivity|split; reflexivity]|intros _; left; reflexivity].
  - intros it E. inversion E; subst it. cbn. split; [exact Ht|]. intros c0 Ek. destruct (Hc c0 Ek) as [-> L]. split; [unfold reg'; rewrite Ek; reflexivity|exact L].
Qed.
