(* C16 -- RemoveItemAt, InsertItemAt, Swap, ReverseItemOrdering. *)
From Coq Require Import List Arith ZArith Bool Lia ZifyBool.
From Muscle Require Import Cont.QueueModel Cont.QueueLemmas Cont.QueueInv Cont.QueueOps1 Cont.QueueEnsure.
Import ListNotations.
Local Open Scope nat_scope.

Lemma fold_length {K} (f : list Z -> K -> list Z) :
  (forall l k, length (f l k) = length l) ->
  forall ks l, length (fold_left f ks l) = length l.
Proof.
  intros H ks. induction ks as [|k ks IH]; intros l; cbn [fold_left]; [reflexivity|].
  rewrite IH. apply H.
Qed.

(* for k = a .. a+n-1 (ascending): l[k] := l[k+1] *)
Lemma shift_down_nth n : forall a (l : list Z) j, a + n < length l ->
  nth j (fold_left (fun l k => upd l k (nth (k + 1) l 0%Z)) (seq a n) l) 0%Z =
  if (a <=? j) && (j <? a + n) then nth (j + 1) l 0%Z else nth j l 0%Z.
Proof.
  induction n as [|n IH]; intros a l j H; cbn [seq fold_left].
  - dif; fin.
  - rewrite IH by (rewrite upd_length; lia). rewrite !nth_upd. dif; fin.
Qed.

(* for k = a+n-1 downto a: l[k] := l[k-1] *)
Lemma shift_up_nth n : forall a (l : list Z) j, 0 < a -> a + n <= length l ->
  nth j (fold_left (fun l k => upd l k (nth (k - 1) l 0%Z)) (rev (seq a n)) l) 0%Z =
  if (a <=? j) && (j <? a + n) then nth (j - 1) l 0%Z else nth j l 0%Z.
Proof.
  induction n as [|n IH]; intros a l j Ha H.
  - cbn [seq rev fold_left]. dif; fin.
  - rewrite seq_S, rev_app_distr. cbn [rev app fold_left].
    rewrite IH by (rewrite ?upd_length; lia). rewrite !nth_upd. dif; fin.
Qed.

(* for k = a+n-1 downto a: l[k+m] := l[k] *)
Lemma shift_up_m_nth m n : forall a (l : list Z) j, a + n + m <= length l ->
  nth j (fold_left (fun l k => upd l (k + m) (nth k l 0%Z)) (rev (seq a n)) l) 0%Z =
  if (a + m <=? j) && (j <? a + n + m) then nth (j - m) l 0%Z else nth j l 0%Z.
Proof.
  induction n as [|n IH]; intros a l j H.
  - cbn [seq rev fold_left]. dif; fin.
  - rewrite seq_S, rev_app_distr. cbn [rev app fold_left].
    rewrite IH by (rewrite ?upd_length; lia). rewrite !nth_upd. dif; fin.
Qed.

Lemma shift_up_m_app m (A B Z : list Z) a n : a = length A -> n = length B -> length Z = m ->
  fold_left (fun l k => upd l (k + m) (nth k l 0%Z)) (rev (seq a n)) (A ++ B ++ Z) = A ++ firstn m (B ++ Z) ++ B.
Proof.
  intros -> -> L. apply (list_ext _ _ 0%Z).
  - rewrite fold_length by (intros; apply upd_length). autorewrite with nthdb. lia.
  - intros j Hj. rewrite fold_length in Hj by (intros; apply upd_length). autorewrite with nthdb in Hj.
    rewrite shift_up_m_nth by (autorewrite with nthdb; lia). autorewrite with nthdb. rewrite Nat.min_l by lia. dif; fin.
Qed.

(* InsertItemAt: AddHead / AddTail of a dummy item, then room is made at index i *)
Lemma shift_down_insert (l : list Z) d i x : i <= length l ->
  upd (fold_left (fun l k => upd l k (nth (k + 1) l 0%Z)) (seq 0 i) (d :: l)) i x = l0_insert_at l i [x].
Proof.
  intros H. unfold l0_insert_at. apply (list_ext _ _ 0%Z).
  - rewrite upd_length, fold_length by (intros; apply upd_length). autorewrite with nthdb. cbn [length]. lia.
  - intros j Hj. rewrite upd_length, fold_length in Hj by (intros; apply upd_length). cbn [length] in Hj.
    rewrite nth_upd, shift_down_nth, fold_length by (intros; apply upd_length) || (cbn [length]; lia).
    autorewrite with nthdb. cbn [length]. rewrite Nat.min_l by lia. dif; fin.
Qed.

Lemma shift_up_insert (l : list Z) d i x : i <= length l ->
  upd (fold_left (fun l k => upd l k (nth (k - 1) l 0%Z)) (rev (seq (i + 1) (length l - i))) (l ++ [d])) i x =
  l0_insert_at l i [x].
Proof.
  intros H. unfold l0_insert_at. apply (list_ext _ _ 0%Z).
  - rewrite upd_length, fold_length by (intros; apply upd_length). autorewrite with nthdb. cbn [length]. lia.
  - intros j Hj. rewrite upd_length, fold_length in Hj by (intros; apply upd_length).
    autorewrite with nthdb in Hj. cbn [length] in Hj.
    rewrite nth_upd, shift_up_nth, fold_length
      by (intros; apply upd_length) || (autorewrite with nthdb; cbn [length]; lia).
    autorewrite with nthdb. cbn [length]. rewrite Nat.min_l by lia. dif; fin.
Qed.

Lemma nth_swap_list (l : list Z) i j k : i < length l -> j < length l ->
  nth k (swap_list l i j) 0%Z =
  if k =? j then nth i l 0%Z else if k =? i then nth j l 0%Z else nth k l 0%Z.
Proof. intros Hi Hj. unfold swap_list. rewrite !nth_upd, upd_length. dif; fin. Qed.

Section Ops2.
Variables (jk : Z) (sq : nat).
Implicit Types (ow : bool) (q : q1).

Lemma shift_from_head_spec i : forall q fuel, head q < qsize q -> i < qsize q -> i < fuel ->
  let q' := shift_from_head q (intern q i) fuel in
  st q' = st q /\ qsize q' = qsize q /\ cnt q' = cnt q /\ head q' = head q /\ tail q' = tail q /\
  inl q' = inl q /\
  forall j, j < qsize q -> getu q' j = if (0 <? j) && (j <=? i) then getu q (j - 1) else getu q j.
Proof.
  induction i as [|i IH]; intros q fuel Hh Hi Hf; (destruct fuel as [|f]; [lia|]); cbn [shift_from_head].
  - rewrite intern_0, Nat.eqb_refl by assumption. repeat split. intros j Hj. dif; fin.
  - destruct (intern q (S i) =? head q) eqn:E.
    + exfalso. rewrite <- (intern_0 q Hh) in E. assert (E' : intern q (S i) = intern q 0) by lia.
      apply intern_inj in E'; lia.
    + rewrite prev_intern by lia. replace (S i - 1) with i by lia.
      change (nth (intern q i) (arr q) dflt) with (getu q i).
      rewrite <- setu_set_raw.
      set (q2 := setu q (S i) (getu q i)).
      rewrite <- (intern_setu q (S i) (getu q i) i). fold q2.
      destruct (IH q2 f) as (H1&H2&H3&H4&H5&H7&H6); subst q2; autorewrite with qdb; try lia.
      autorewrite with qdb in *. repeat split; try assumption.
      intros j Hj. rewrite H6 by lia. rewrite !getu_setu by lia. dif; fin.
Qed.

Lemma shift_from_tail_spec d : forall q i fuel, head q < qsize q -> cnt q <= qsize q ->
  tail q = intern q (cnt q - 1) -> i + d = cnt q - 1 -> 0 < cnt q -> d < fuel ->
  let q' := shift_from_tail q (intern q i) fuel in
  st q' = st q /\ qsize q' = qsize q /\ cnt q' = cnt q /\ head q' = head q /\ tail q' = tail q /\
  inl q' = inl q /\
  forall j, j < qsize q -> getu q' j = if (i <=? j) && (j <? cnt q - 1) then getu q (j + 1) else getu q j.
Proof.
  induction d as [|d IH]; intros q i fuel Hh Hc Ht Hd Hp Hf; (destruct fuel as [|f]; [lia|]);
    cbn [shift_from_tail].
  - replace i with (cnt q - 1) by lia. rewrite <- Ht, Nat.eqb_refl. repeat split. intros j Hj. dif; fin.
  - destruct (intern q i =? tail q) eqn:E.
    + exfalso. rewrite Ht in E. assert (E' : intern q i = intern q (cnt q - 1)) by lia.
      apply intern_inj in E'; lia.
    + rewrite next_intern' by lia.
      change (nth (intern q (i + 1)) (arr q) dflt) with (getu q (i + 1)).
      rewrite <- setu_set_raw.
      set (q2 := setu q i (getu q (i + 1))).
      rewrite <- (intern_setu q i (getu q (i + 1)) (i + 1)). fold q2.
      destruct (IH q2 (i + 1) f) as (H1&H2&H3&H4&H5&H7&H6); subst q2; autorewrite with qdb; try lia;
        try exact Ht.
      autorewrite with qdb in *. repeat split; try assumption.
      intros j Hj. rewrite H6 by lia. dif; rewrite ?getu_setu by lia; dif; fin.
Qed.

Lemma remove_at_spec ow q i : inv ow sq q -> i < cnt q ->
  inv ow sq (remove_at ow q i) /\ abs (remove_at ow q i) = l0_remove_at (abs q) i.
Proof.
  intros I Hi. unfold remove_at. replace (cnt q <=? i) with false by lia.
  pose proof (inv_cnt _ _ q I) as Hc. pose proof (inv_hd _ _ q I ltac:(lia)) as Hh.
  pose proof (inv_tail _ _ q I ltac:(lia)) as Ht.
  destruct (i <? cnt q / 2) eqn:E.
  - destruct (shift_from_head_spec i q (qsize q) Hh ltac:(lia) ltac:(lia)) as (H1&H2&H3&H4&H5&H7&H6).
    set (q2 := shift_from_head q (intern q i) (qsize q)) in *.
    assert (I2 : inv ow sq q2).
    { apply (inv_same_shape _ _ q); try assumption. intros j Hj. rewrite H6 by lia. dif; fin. }
    rewrite <- (remove_head_eq ow q2) by lia.
    split; [apply inv_remove_head; [assumption|lia]|].
    destruct (remove_head_shape ow sq q2 I2 ltac:(lia)) as (_&_&C&_&_&_&G).
    apply abs_ext; unfold l0_remove_at; autorewrite with nthdb; [lia|].
    intros j Hj. autorewrite with nthdb in Hj. rewrite G by lia.
    replace (j + 1 <? qsize q2) with true by lia. rewrite H6 by lia.
    autorewrite with nthdb absdb. rewrite ?Nat.min_l by lia. dif; fin.
  - destruct (shift_from_tail_spec (cnt q - 1 - i) q i (qsize q) Hh Hc Ht ltac:(lia) ltac:(lia) ltac:(lia))
      as (H1&H2&H3&H4&H5&H7&H6).
    set (q2 := shift_from_tail q (intern q i) (qsize q)) in *.
    assert (I2 : inv ow sq q2).
    { apply (inv_same_shape _ _ q); try assumption. intros j Hj. rewrite H6 by lia. dif; fin. }
    rewrite <- (remove_tail_eq ow q2) by lia.
    split; [apply inv_remove_tail; [assumption|lia]|].
    rewrite (abs_remove_tail ow sq q2 I2) by lia.
    apply (list_ext _ _ 0%Z); unfold l0_remove_at; autorewrite with nthdb; [lia|].
    intros j Hj. autorewrite with nthdb in Hj. rewrite nth_firstn'.
    replace (j <? cnt q2 - 1) with true by lia. rewrite nth_abs by lia. rewrite H6 by lia.
    autorewrite with nthdb absdb. rewrite ?Nat.min_l by lia. dif; fin.
Qed.

Lemma fold_copy_spec ow (dst src : nat -> nat) ks : forall g, inv ow sq g ->
  (forall k, In k ks -> dst k < cnt g /\ src k < cnt g) ->
  let g' := fold_left (fun g k => setu g (dst k) (getu g (src k))) ks g in
  inv ow sq g' /\ cnt g' = cnt g /\
  abs g' = fold_left (fun l k => upd l (dst k) (nth (src k) l 0%Z)) ks (abs g).
Proof.
  induction ks as [|k ks IH]; intros g I H; cbn [fold_left].
  - split; [assumption|]. repeat split.
  - destruct (H k (or_introl eq_refl)) as [Hd Hs].
    destruct (IH (setu g (dst k) (getu g (src k)))) as (J1&J2&J5).
    + apply inv_setu; assumption.
    + intros k' Hk'. rewrite cnt_setu. apply H. right. exact Hk'.
    + autorewrite with qdb in *. split; [assumption|]. repeat split; try assumption.
      rewrite J5, (abs_setu ow sq) by assumption. rewrite (getu_abs g (src k)) by assumption. reflexivity.
Qed.

Lemma l0_insert_tail (l : list Z) i xs : length l <= i -> l0_insert_at l (Nat.min i (length l)) xs = l ++ xs.
Proof.
  intros H. unfold l0_insert_at. replace (Nat.min i (length l)) with (length l) by lia.
  rewrite firstn_all, skipn_all, app_nil_r. reflexivity.
Qed.

Lemma insert_at_spec ow q i x : inv ow sq q ->
  inv ow sq (insert_at ow jk sq q i x) /\
  abs (insert_at ow jk sq q i x) = l0_insert_at (abs q) (Nat.min i (cnt q)) [x].
Proof.
  intros I. unfold insert_at.
  destruct (cnt q <=? i) eqn:E1.
  - destruct (add_tail_spec jk sq ow q x I) as [J1 J2]. split; [assumption|].
    rewrite J2. symmetry. rewrite <- (abs_length q). apply l0_insert_tail. rewrite abs_length. lia.
  - destruct (i =? 0) eqn:E2.
    + destruct (add_head_spec jk sq ow q x I) as [J1 J2]. split; [assumption|].
      rewrite J2. replace (Nat.min i (cnt q)) with 0 by lia. reflexivity.
    + replace (Nat.min i (cnt q)) with i by lia.
      destruct (i <? cnt q / 2) eqn:E3.
      * destruct (add_head_spec jk sq ow q dflt I) as [J1 J2].
        set (q2 := add_head ow jk sq q dflt) in *.
        assert (C2 : cnt q2 = cnt q + 1) by (rewrite <- (abs_length q2), J2; cbn [length]; rewrite abs_length; lia).
        destruct (fold_copy_spec ow (fun k => k) (fun k => k + 1) (seq 0 i) q2 J1) as (K1&K2&K5).
        { intros k Hk. apply in_seq in Hk. lia. }
        cbv beta in *. split; [apply inv_setu; [assumption|lia]|].
        rewrite (abs_setu ow sq) by (assumption || lia). rewrite K5, J2.
        apply shift_down_insert. rewrite abs_length. lia.
      * destruct (add_tail_spec jk sq ow q dflt I) as [J1 J2].
        set (q2 := add_tail ow jk sq q dflt) in *.
        assert (C2 : cnt q2 = cnt q + 1) by (rewrite <- (abs_length q2), J2; autorewrite with nthdb; cbn [length]; lia).
        replace (cnt q2 - 1 - i) with (length (abs q) - i) by (rewrite abs_length; lia).
        destruct (fold_copy_spec ow (fun k => k) (fun k => k - 1) (rev (seq (i + 1) (length (abs q) - i))) q2 J1)
          as (K1&K2&K5).
        { intros k Hk. apply in_rev, in_seq in Hk. rewrite abs_length in Hk. lia. }
        cbv beta in *. split; [apply inv_setu; [assumption|lia]|].
        rewrite (abs_setu ow sq) by (assumption || lia). rewrite K5, J2.
        apply shift_up_insert. rewrite abs_length. lia.
Qed.

Lemma swap_items_spec ow q i j : inv ow sq q -> i < cnt q -> j < cnt q ->
  inv ow sq (swap_items q i j) /\ abs (swap_items q i j) = swap_list (abs q) i j /\
  cnt (swap_items q i j) = cnt q.
Proof.
  intros I Hi Hj. unfold swap_items. cbv zeta.
  assert (I1 : inv ow sq (setu q i (getu q j))) by (apply inv_setu; assumption).
  split; [apply inv_setu; [assumption|rewrite cnt_setu; assumption]|]. split; [|reflexivity].
  rewrite (abs_setu ow sq) by (assumption || (rewrite cnt_setu; assumption)).
  rewrite (abs_setu ow sq) by assumption. unfold swap_list.
  rewrite (getu_abs q i), (getu_abs q j) by assumption. reflexivity.
Qed.

Lemma reverse_loop_spec ow fuel : forall q f t, inv ow sq q -> t < cnt q -> t - f < fuel ->
  let q' := reverse_loop q f t fuel in
  inv ow sq q' /\ cnt q' = cnt q /\
  forall j, j < cnt q ->
    nth j (abs q') 0%Z = if (f <=? j) && (j <=? t) then nth (f + t - j) (abs q) 0%Z else nth j (abs q) 0%Z.
Proof.
  induction fuel as [|fuel IH]; intros q f t I Ht Hf; [lia|]. cbn [reverse_loop].
  destruct (f <? t) eqn:E.
  - destruct (swap_items_spec ow q f t I ltac:(lia) Ht) as (J1&J2&J3).
    destruct (IH (swap_items q f t) (f + 1) (t - 1) J1 ltac:(lia) ltac:(lia)) as (K1&K2&K3).
    split; [assumption|]. split; [lia|].
    intros j Hj. rewrite K3 by lia. rewrite J2, !nth_swap_list by (rewrite abs_length; lia). dif; fin.
  - split; [assumption|]. split; [reflexivity|]. intros j Hj. dif; fin.
Qed.

Lemma reverse_spec ow q from to : inv ow sq q ->
  inv ow sq (reverse q from to) /\ abs (reverse q from to) = l0_reverse (abs q) from to.
Proof.
  intros I. unfold reverse, l0_reverse. rewrite abs_length.
  destruct (from <? to) eqn:E1; [|split; [assumption|reflexivity]]. cbn [andb].
  destruct (cnt q) as [|c] eqn:Ec; [split; [assumption|reflexivity]|].
  replace (0 <? S c) with true by lia. rewrite <- Ec.
  set (t := Nat.min (to - 1) (cnt q - 1)).
  destruct (reverse_loop_spec ow (cnt q) q from t I ltac:(lia) ltac:(lia)) as (J1&J2&J3).
  split; [assumption|].
  destruct (from <? t) eqn:E2.
  - apply (list_ext _ _ 0%Z); autorewrite with nthdb; [lia|].
    intros j Hj. rewrite J2 in Hj. rewrite J3 by lia. autorewrite with nthdb.
    replace (Nat.min from (cnt q)) with from by lia.
    replace (Nat.min (S t - from) (cnt q - from)) with (S t - from) by lia. dif; fin.
  - apply (list_ext _ _ 0%Z); autorewrite with nthdb; [lia|].
    intros j Hj. rewrite J2 in Hj. rewrite J3 by lia. dif; fin.
Qed.

End Ops2.
