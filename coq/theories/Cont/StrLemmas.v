(* C17 -- list lemmas for the N-indexed helpers of StrL0.v. *)
From Coq Require Import List NArith ZArith Bool Lia.
From Muscle Require Import Cont.StrL0.
Import ListNotations.
Local Open Scope N_scope.

(* split syntactic conjunctions only (plain [split] would unfold definitions such as the invariant) *)
Ltac splits := repeat match goal with |- _ /\ _ => split end.

Lemma lenN_nil {A} : lenN (@nil A) = 0. Proof. reflexivity. Qed.
Lemma lenN_cons {A} (x : A) l : lenN (x :: l) = lenN l + 1.
Proof. unfold lenN. cbn [length]. lia. Qed.
Lemma lenN_app {A} (a b : list A) : lenN (a ++ b) = lenN a + lenN b.
Proof. unfold lenN. rewrite app_length. lia. Qed.
Lemma lenN_repN {A} (x : A) n : lenN (repN x n) = n.
Proof. unfold lenN, repN. rewrite repeat_length. lia. Qed.
Lemma lenN_rev {A} (l : list A) : lenN (rev l) = lenN l.
Proof. unfold lenN. now rewrite rev_length. Qed.
Lemma lenN_map {A B} (f : A -> B) l : lenN (map f l) = lenN l.
Proof. unfold lenN. now rewrite map_length. Qed.
Lemma lenN_0 {A} (l : list A) : lenN l = 0 -> l = [].
Proof. destruct l; [reflexivity|]. rewrite lenN_cons. lia. Qed.

Lemma takeN_firstn {A} n (l : list A) : takeN n l = firstn (N.to_nat n) l.
Proof.
  unfold takeN, lenN. destruct (N.le_ge_cases n (N.of_nat (length l))) as [H|H].
  - now rewrite N.min_l.
  - rewrite N.min_r by assumption. rewrite !firstn_all2; trivial; lia.
Qed.
Lemma dropN_skipn {A} n (l : list A) : dropN n l = skipn (N.to_nat n) l.
Proof.
  unfold dropN, lenN. destruct (N.le_ge_cases n (N.of_nat (length l))) as [H|H].
  - now rewrite N.min_l.
  - rewrite N.min_r by assumption. rewrite !skipn_all2; trivial; lia.
Qed.

Lemma lenN_takeN {A} n (l : list A) : lenN (takeN n l) = N.min n (lenN l).
Proof. rewrite takeN_firstn. unfold lenN. rewrite firstn_length. lia. Qed.
Lemma lenN_dropN {A} n (l : list A) : lenN (dropN n l) = lenN l - n.
Proof. rewrite dropN_skipn. unfold lenN. rewrite skipn_length. lia. Qed.
Lemma takeN_dropN {A} n (l : list A) : takeN n l ++ dropN n l = l.
Proof. rewrite takeN_firstn, dropN_skipn. apply firstn_skipn. Qed.
Lemma takeN_0 {A} (l : list A) : takeN 0 l = [].
Proof. rewrite takeN_firstn. reflexivity. Qed.
Lemma dropN_0 {A} (l : list A) : dropN 0 l = l.
Proof. rewrite dropN_skipn. reflexivity. Qed.
Lemma takeN_nil {A} n : takeN n (@nil A) = [].
Proof. rewrite takeN_firstn. apply firstn_nil. Qed.
Lemma dropN_nil {A} n : dropN n (@nil A) = [].
Proof. rewrite dropN_skipn. apply skipn_nil. Qed.
Lemma takeN_all {A} n (l : list A) : lenN l <= n -> takeN n l = l.
Proof. intros H. rewrite takeN_firstn. apply firstn_all2. unfold lenN in H. lia. Qed.
Lemma dropN_all {A} n (l : list A) : lenN l <= n -> dropN n l = [].
Proof. intros H. rewrite dropN_skipn. apply skipn_all2. unfold lenN in H. lia. Qed.
Lemma takeN_app_le {A} n (a b : list A) : n <= lenN a -> takeN n (a ++ b) = takeN n a.
Proof.
  intros H. rewrite !takeN_firstn, firstn_app. unfold lenN in H.
  replace (N.to_nat n - length a)%nat with 0%nat by lia. cbn [firstn]. apply app_nil_r.
Qed.
Lemma takeN_app_ge {A} n (a b : list A) : lenN a <= n -> takeN n (a ++ b) = a ++ takeN (n - lenN a) b.
Proof.
  intros H. rewrite !takeN_firstn, firstn_app. unfold lenN in *.
  rewrite firstn_all2 by lia. f_equal. f_equal. lia.
Qed.
Lemma takeN_app_exact {A} (a b : list A) : takeN (lenN a) (a ++ b) = a.
Proof. rewrite takeN_app_le by lia. apply takeN_all. lia. Qed.
Lemma dropN_app_le {A} n (a b : list A) : n <= lenN a -> dropN n (a ++ b) = dropN n a ++ b.
Proof.
  intros H. rewrite !dropN_skipn, skipn_app. unfold lenN in H.
  replace (N.to_nat n - length a)%nat with 0%nat by lia. reflexivity.
Qed.
Lemma dropN_app_ge {A} n (a b : list A) : lenN a <= n -> dropN n (a ++ b) = dropN (n - lenN a) b.
Proof.
  intros H. rewrite !dropN_skipn, skipn_app. unfold lenN in *.
  rewrite skipn_all2 by lia. cbn [app]. f_equal. lia.
Qed.
Lemma dropN_app_exact {A} (a b : list A) : dropN (lenN a) (a ++ b) = b.
Proof. rewrite dropN_app_ge by lia. rewrite N.sub_diag. apply dropN_0. Qed.
Lemma takeN_takeN {A} a b (l : list A) : takeN a (takeN b l) = takeN (N.min a b) l.
Proof. rewrite !takeN_firstn, firstn_firstn. f_equal. lia. Qed.
Lemma skipn_skipn' {A} (x y : nat) (l : list A) : skipn x (skipn y l) = skipn (x + y) l.
Proof.
  revert l. induction y as [|y IH]; intros l.
  - now rewrite Nat.add_0_r.
  - rewrite Nat.add_succ_r. destruct l as [|a l]; [now rewrite !skipn_nil|]. cbn [skipn]. apply IH.
Qed.
Lemma takeN_takeN_le {A} a b (l : list A) : a <= b -> takeN a (takeN b l) = takeN a l.
Proof. intros H. rewrite takeN_takeN. f_equal. lia. Qed.
Lemma dropN_dropN {A} a b (l : list A) : dropN a (dropN b l) = dropN (a + b) l.
Proof. rewrite !dropN_skipn, skipn_skipn'. f_equal. lia. Qed.
Lemma takeN_dropN_comm {A} a b (l : list A) : takeN a (dropN b l) = dropN b (takeN (a + b) l).
Proof.
  rewrite !takeN_firstn, !dropN_skipn. rewrite skipn_firstn_comm. f_equal. lia.
Qed.
Lemma takeN_map {A B} (f : A -> B) n l : takeN n (map f l) = map f (takeN n l).
Proof. rewrite !takeN_firstn. apply firstn_map. Qed.
Lemma dropN_map {A B} (f : A -> B) n l : dropN n (map f l) = map f (dropN n l).
Proof. rewrite !dropN_skipn. apply skipn_map. Qed.
Lemma takeN_S {A} n (x : A) l : takeN (n + 1) (x :: l) = x :: takeN n l.
Proof. rewrite !takeN_firstn. replace (N.to_nat (n + 1)) with (S (N.to_nat n)) by lia. reflexivity. Qed.
Lemma dropN_S {A} n (x : A) l : dropN (n + 1) (x :: l) = dropN n l.
Proof. rewrite !dropN_skipn. replace (N.to_nat (n + 1)) with (S (N.to_nat n)) by lia. reflexivity. Qed.

(* comparisons decided by arithmetic *)
Lemma ltb_t a b : a < b -> (a <? b) = true. Proof. apply N.ltb_lt. Qed.
Lemma ltb_f a b : b <= a -> (a <? b) = false. Proof. apply N.ltb_ge. Qed.
Lemma leb_f a b : b < a -> (a <=? b) = false. Proof. apply N.leb_gt. Qed.
Lemma eqb_f a b : a <> b -> (a =? b) = false. Proof. apply N.eqb_neq. Qed.

(* ---- nthN *)
Lemma nthN_nth i l : nthN i l = nth (N.to_nat i) l 0.
Proof.
  unfold nthN. destruct (i <? lenN l) eqn:E; [reflexivity|].
  apply N.ltb_ge in E. unfold lenN in E. symmetry. apply nth_overflow. lia.
Qed.
Lemma nthN_app_l i a b : i < lenN a -> nthN i (a ++ b) = nthN i a.
Proof. intros H. rewrite !nthN_nth. apply app_nth1. unfold lenN in H. lia. Qed.
Lemma nthN_app_r i a b : lenN a <= i -> nthN i (a ++ b) = nthN (i - lenN a) b.
Proof. intros H. rewrite !nthN_nth. unfold lenN in *. rewrite app_nth2 by lia. f_equal. lia. Qed.
Lemma nthN_cons_0 x l : nthN 0 (x :: l) = x.
Proof. reflexivity. Qed.
Lemma nthN_takeN i n l : i < n -> nthN i (takeN n l) = nthN i l.
Proof.
  intros H. rewrite !nthN_nth, takeN_firstn.
  rewrite <- (firstn_skipn (N.to_nat n) l) at 2.
  destruct (Nat.lt_ge_cases (N.to_nat i) (length (firstn (N.to_nat n) l))) as [L|L].
  - now rewrite app_nth1.
  - rewrite nth_overflow by lia. rewrite firstn_length in L.
    rewrite app_nth2 by (rewrite firstn_length; lia).
    rewrite nth_overflow; [reflexivity|]. rewrite skipn_length, firstn_length. lia.
Qed.
Lemma nthN_dropN i n l : nthN i (dropN n l) = nthN (i + n) l.
Proof.
  rewrite !nthN_nth, dropN_skipn.
  rewrite <- (firstn_skipn (N.to_nat n) l) at 2.
  destruct (Nat.le_gt_cases (N.to_nat n) (length l)) as [L|L].
  - rewrite app_nth2 by (rewrite firstn_length; lia). f_equal. rewrite firstn_length. lia.
  - rewrite skipn_all2 by lia. rewrite app_nil_r. rewrite firstn_all2 by lia.
    rewrite nth_overflow by (cbn; lia). rewrite nth_overflow by lia. reflexivity.
Qed.
Lemma nthN_overflow i l : lenN l <= i -> nthN i l = 0.
Proof. intros H. unfold nthN. apply N.ltb_ge in H. now rewrite H. Qed.
Lemma nth_repeat_lt' (x d : N) (m k : nat) : (k < m)%nat -> nth k (repeat x m) d = x.
Proof.
  revert k. induction m as [|m IH]; intros k H; [lia|]. destruct k; cbn; [reflexivity|]. apply IH. lia.
Qed.
Lemma nthN_repN x i n : i < n -> nthN i (repN x n) = x.
Proof. intros H. rewrite nthN_nth. unfold repN. apply nth_repeat_lt'. lia. Qed.

(* ---- blit / upd *)
Lemma lenN_blit l i src : i + lenN src <= lenN l -> lenN (blit l i src) = lenN l.
Proof. intros H. unfold blit. rewrite !lenN_app, lenN_takeN, lenN_dropN. lia. Qed.
Lemma lenN_upd l i v : i < lenN l -> lenN (upd l i v) = lenN l.
Proof. intros H. apply lenN_blit. rewrite lenN_cons, lenN_nil. lia. Qed.
Lemma takeN_blit_before n l i src : n <= i -> i <= lenN l -> takeN n (blit l i src) = takeN n l.
Proof.
  intros H1 H2. unfold blit. rewrite takeN_app_le by (rewrite lenN_takeN; lia).
  rewrite takeN_takeN. f_equal. lia.
Qed.
Lemma takeN_blit_cover l i src : i <= lenN l -> takeN (i + lenN src) (blit l i src) = takeN i l ++ src.
Proof.
  intros H. unfold blit. rewrite takeN_app_ge by (rewrite lenN_takeN; lia).
  rewrite lenN_takeN. replace (i + lenN src - N.min i (lenN l)) with (lenN src) by lia.
  now rewrite takeN_app_exact.
Qed.
Lemma takeN_blit_0 l src n : n <= lenN src -> takeN n (blit l 0 src) = takeN n src.
Proof. intros H. unfold blit. rewrite takeN_0. cbn [app]. now apply takeN_app_le. Qed.
Lemma dropN_blit_after l i src n : i + lenN src <= n -> i <= lenN l -> dropN n (blit l i src) = dropN n l.
Proof.
  intros H1 H2. unfold blit.
  rewrite dropN_app_ge by (rewrite lenN_takeN; lia). rewrite lenN_takeN.
  rewrite dropN_app_ge by lia. rewrite dropN_dropN. f_equal. lia.
Qed.
Lemma nthN_blit_before l i src k : k < i -> i <= lenN l -> nthN k (blit l i src) = nthN k l.
Proof.
  intros H1 H2. unfold blit. rewrite nthN_app_l by (rewrite lenN_takeN; lia). now apply nthN_takeN.
Qed.
Lemma nthN_blit_in l i src k : i <= lenN l -> i <= k -> k < i + lenN src -> nthN k (blit l i src) = nthN (k - i) src.
Proof.
  intros H1 H2 H3. unfold blit. rewrite nthN_app_r by (rewrite lenN_takeN; lia). rewrite lenN_takeN.
  rewrite nthN_app_l by lia. f_equal. lia.
Qed.
Lemma nthN_blit_after l i src k : i <= lenN l -> i + lenN src <= k -> nthN k (blit l i src) = nthN k l.
Proof.
  intros H1 H2. unfold blit. rewrite nthN_app_r by (rewrite lenN_takeN; lia). rewrite lenN_takeN.
  rewrite nthN_app_r by lia. rewrite nthN_dropN. f_equal. lia.
Qed.
Lemma nthN_upd_same l i v : i < lenN l -> nthN i (upd l i v) = v.
Proof.
  intros H. unfold upd. rewrite nthN_blit_in; rewrite ?lenN_cons, ?lenN_nil; try lia.
  now rewrite N.sub_diag.
Qed.
Lemma nthN_upd_other l i v k : i < lenN l -> k <> i -> nthN k (upd l i v) = nthN k l.
Proof.
  intros H D. unfold upd. destruct (N.lt_ge_cases k i).
  - apply nthN_blit_before; lia.
  - apply nthN_blit_after; rewrite ?lenN_cons, ?lenN_nil; lia.
Qed.
Lemma takeN_upd_before l i v n : n <= i -> i <= lenN l -> takeN n (upd l i v) = takeN n l.
Proof. intros. now apply takeN_blit_before. Qed.
Lemma blit_nil l i : blit l i [] = l.
Proof. unfold blit. cbn [app lenN length]. rewrite N.add_0_r. apply takeN_dropN. Qed.

Lemma dropN_cons_nth l i : i < lenN l -> dropN i l = nthN i l :: dropN (i + 1) l.
Proof.
  intros H. destruct (dropN i l) as [|x r] eqn:E.
  - apply (f_equal lenN) in E. rewrite lenN_dropN, lenN_nil in E. lia.
  - assert (X : nthN 0 (dropN i l) = x) by now rewrite E.
    rewrite nthN_dropN in X. cbn [N.add] in X. subst x. f_equal.
    replace (i + 1) with (1 + i) by lia. rewrite <- dropN_dropN, E.
    replace 1 with (0 + 1) by lia. rewrite dropN_S. now rewrite dropN_0.
Qed.
Lemma upd_id l i : i < lenN l -> upd l i (nthN i l) = l.
Proof.
  intros H. unfold upd, blit. rewrite lenN_cons, lenN_nil. cbn [app]. rewrite N.add_0_l.
  rewrite <- (dropN_cons_nth l i H). apply takeN_dropN.
Qed.
Lemma upd_same l i v : i < lenN l -> nthN i l = v -> upd l i v = l.
Proof. intros H <-. now apply upd_id. Qed.

Lemma blit_blit_adjacent l i a1 a2 :
  i + lenN a1 <= lenN l -> blit (blit l i a1) (i + lenN a1) a2 = blit l i (a1 ++ a2).
Proof.
  intros H.
  transitivity (takeN (i + lenN a1) (blit l i a1) ++ a2 ++ dropN (i + lenN a1 + lenN a2) (blit l i a1)); [reflexivity|].
  rewrite (takeN_blit_cover l i a1) by lia.
  rewrite (dropN_blit_after l i a1) by lia.
  unfold blit. rewrite lenN_app, <- !app_assoc. do 3 f_equal. f_equal. lia.
Qed.
Lemma upd_upd_adjacent l i x y : i + 1 <= lenN l -> upd (upd l i x) (i + 1) y = blit l i [x; y].
Proof.
  intros H. unfold upd. replace (i + 1) with (i + lenN [x]) by (rewrite lenN_cons, lenN_nil; lia).
  rewrite blit_blit_adjacent; [reflexivity|]. rewrite lenN_cons, lenN_nil. lia.
Qed.

Lemma takeN_add {A} a k (l : list A) : takeN (a + k) l = takeN a l ++ takeN k (dropN a l).
Proof.
  rewrite <- (takeN_dropN a l) at 1.
  destruct (N.le_gt_cases (lenN l) a) as [H|H].
  - rewrite (dropN_all a l H), app_nil_r, takeN_nil, app_nil_r. rewrite takeN_takeN. f_equal. lia.
  - rewrite takeN_app_ge by (rewrite lenN_takeN; lia). rewrite lenN_takeN. do 2 f_equal. lia.
Qed.

(* ---- cstr and NUL-freeness *)
Definition nulfree (l : list N) : Prop := Forall (fun x => x <> 0) l.

Lemma cstr_nulfree_app l r : nulfree l -> cstr (l ++ 0 :: r) = l.
Proof.
  induction 1 as [|x t Hx Ht IH]; cbn [app cstr].
  - reflexivity.
  - destruct (x =? 0) eqn:E; [apply N.eqb_eq in E; contradiction|]. now rewrite IH.
Qed.
Lemma cstr_nulfree l : nulfree l -> cstr l = l.
Proof.
  induction 1 as [|x t Hx Ht IH]; cbn [cstr]; [reflexivity|].
  destruct (x =? 0) eqn:E; [apply N.eqb_eq in E; contradiction|]. now rewrite IH.
Qed.
Lemma cstr_is_nulfree l : nulfree (cstr l).
Proof.
  induction l as [|x t IH]; cbn [cstr]; [constructor|].
  destruct (x =? 0) eqn:E; [constructor|]. constructor; [|assumption]. now apply N.eqb_neq.
Qed.
Lemma nulfree_app a b : nulfree (a ++ b) <-> nulfree a /\ nulfree b.
Proof. apply Forall_app. Qed.
Lemma nulfree_takeN n l : nulfree l -> nulfree (takeN n l).
Proof.
  intros H. rewrite <- (takeN_dropN n l) in H. now apply nulfree_app in H.
Qed.
Lemma nulfree_dropN n l : nulfree l -> nulfree (dropN n l).
Proof.
  intros H. rewrite <- (takeN_dropN n l) in H. now apply nulfree_app in H.
Qed.
Lemma nulfree_rev l : nulfree l -> nulfree (rev l).
Proof. apply Forall_rev. Qed.
Lemma nulfree_repN x n : x <> 0 -> nulfree (repN x n).
Proof. intros H. unfold repN. induction (N.to_nat n); cbn; constructor; assumption. Qed.

(* the buffer [takeN n b ++ 0 :: _] seen as a C string *)
Lemma cstr_of_terminated b n : n < lenN b -> nthN n b = 0 -> nulfree (takeN n b) -> cstr b = takeN n b.
Proof.
  intros L Z F. rewrite <- (takeN_dropN n b) at 1.
  assert (D : exists r, dropN n b = 0 :: r).
  { destruct (dropN n b) as [|x r] eqn:E.
    - apply (f_equal lenN) in E. rewrite lenN_dropN, lenN_nil in E. lia.
    - exists r. f_equal. assert (nthN 0 (dropN n b) = x) by now rewrite E.
      rewrite nthN_dropN in H. cbn [N.add] in H. congruence. }
  destruct D as [r ->]. now apply cstr_nulfree_app.
Qed.
(* the C-string view is a prefix *)
Lemma takeN_cstr n l : n <= lenN (cstr l) -> takeN n l = takeN n (cstr l).
Proof.
  revert n. induction l as [|x t IH]; intros n H; cbn [cstr] in *; [reflexivity|].
  destruct (x =? 0). { rewrite lenN_nil in H. replace n with 0 by lia. now rewrite !takeN_0. }
  destruct (N.eq_dec n 0) as [->|Hn]; [now rewrite !takeN_0|].
  rewrite lenN_cons in H. replace n with (n - 1 + 1) by lia. rewrite !takeN_S. f_equal. apply IH. lia.
Qed.
Lemma lenN_cstr_le l : lenN (cstr l) <= lenN l.
Proof. induction l as [|a t IH]; cbn [cstr]; [lia|]. destruct (a =? 0); rewrite ?lenN_cons, ?lenN_nil; lia. Qed.
Lemma cstr_shorter l : list_eqb (cstr l) l = false -> lenN (cstr l) + 1 <= lenN l.
Proof.
  induction l as [|x t IH]; cbn [cstr]; [discriminate|].
  destruct (x =? 0) eqn:E; intros H; [rewrite lenN_nil, lenN_cons; lia|].
  cbn [list_eqb] in H. rewrite N.eqb_refl in H. cbn [andb] in H. specialize (IH H). rewrite !lenN_cons. lia.
Qed.

Lemma takeN_min_len {A} n (l : list A) : takeN (N.min n (lenN l)) l = takeN n l.
Proof. unfold takeN. f_equal. f_equal. lia. Qed.
Lemma dropN_min_len {A} n (l : list A) : dropN (N.min n (lenN l)) l = dropN n l.
Proof. unfold dropN. f_equal. f_equal. lia. Qed.
Lemma concat_rep1 {A} (x : list A) : concat (repN x 1) = x.
Proof. unfold repN. cbn. apply app_nil_r. Qed.
Lemma lenN_concat_rep {A} (x : list A) k : lenN (concat (repN x k)) = lenN x * k.
Proof.
  unfold repN. rewrite <- (N2Nat.id k) at 2. induction (N.to_nat k) as [|j IH]; cbn [repeat concat].
  - rewrite lenN_nil. lia.
  - rewrite lenN_app, IH. lia.
Qed.
Lemma cstr_fixpoint_unterminated bytes : list_eqb (cstr bytes) bytes = true <-> nulfree bytes.
Proof.
  induction bytes as [|x t IH]; cbn [cstr].
  - split; [constructor|reflexivity].
  - destruct (x =? 0) eqn:E.
    + split; [discriminate|]. intros H. inversion H; subst. apply N.eqb_eq in E. congruence.
    + cbn [list_eqb]. rewrite N.eqb_refl. cbn [andb]. rewrite IH. split.
      * intros H. constructor; [now apply N.eqb_neq|assumption].
      * intros H. now inversion H.
Qed.
Lemma concat_rep_single (ch : N) k : concat (repN [ch] k) = repN ch k.
Proof. unfold repN. induction (N.to_nat k) as [|j IH]; cbn [repeat concat app]; [reflexivity|now rewrite IH]. Qed.
Lemma repN_S {A} (x : A) n : repN x (n + 1) = x :: repN x n.
Proof. unfold repN. replace (N.to_nat (n + 1)) with (S (N.to_nat n)) by lia. reflexivity. Qed.
