(* C09 -- preservation of the table-local invariant by the MoveTo*Aux family, Clear, EnsureSize. *)
From Coq Require Import List Arith ZArith NArith PArith Bool Lia FMapPositive Permutation.
From Muscle Require Import Cont.HtModel Cont.HtLemmas Cont.HtRepr Cont.HtWalk Cont.HtIters Cont.HtTable.
Import ListNotations.

Definition okstep (t : nat) (I : itab) (r : ht * itab) : Prop := TL t (fst r) (snd r) /\ frame t I (snd r).

Lemma okstep_id : forall t h I, TL t h I -> okstep t I (h, I).
Proof. intros. split; [assumption|apply frame_refl]. Qed.

Lemma okstep_trans : forall t I h1 I1 r, okstep t I (h1, I1) -> okstep t I1 r -> okstep t I r.
Proof. intros t I h1 I1 r [_ F1] [T2 F2]. split; [exact T2|eapply frame_trans; eassumption]. Qed.

Definition opt_in (o : option positive) (l : list positive) : Prop := o = None \/ exists b, o = Some b /\ In b l.


Lemma opt_in_last : forall (l : list positive), opt_in (last_of l) l.
Proof. intros l. destruct (last_of l) eqn:E; [right; eexists; split; [reflexivity|apply last_of_in; exact E]|left; reflexivity]. Qed.

Lemma opt_in_head : forall (l : list positive), opt_in (head_opt l) l.
Proof. intros [|x l]; [left; reflexivity|right; exists x; split; [reflexivity|left; reflexivity]]. Qed.

Lemma opt_in_head_skipn : forall (l : list positive) n, opt_in (head_opt (skipn n l)) l.
Proof.
  intros l n. rewrite head_skipn_nth_error. destruct (nth_error l n) eqn:E; [right|left; reflexivity].
  eexists; split; [reflexivity|eapply nth_error_In; eassumption].
Qed.

Lemma opt_in_prev : forall h l f, linked h l -> In f l -> opt_in (get_prev h f) l.
Proof.
  intros h l f L Hf. rewrite (lk_prev _ _ L) by exact Hf. destruct (prev_in l f) eqn:E; [right|left; reflexivity].
  eexists; split; [reflexivity|]. apply prev_in_in in E. tauto.
Qed.

Lemma opt_in_next : forall h l f, linked h l -> In f l -> opt_in (get_next h f) l.
Proof.
  intros h l f L Hf. rewrite (lk_next _ _ L) by exact Hf. destruct (next_in l f) eqn:E; [right|left; reflexivity].
  eexists; split; [reflexivity|]. apply next_in_in in E. tauto.
Qed.

Section Moves.
Variable t : nat.

Lemma move_generic : forall h I e l behind, TL t h I -> tinv h l -> In e l ->
  (forall l1 l2, l = l1 ++ e :: l2 -> linked (unlink h e) (l1 ++ l2) -> opt_in behind (l1 ++ l2)) ->
  okstep t I (insert_iter_entry (unlink h e) e behind, patch_all h e I).
Proof.
  intros h I e l behind HTL T He Hb. destruct (in_split _ _ He) as (l1 & l2 & ->).
  destruct (unlink_linked h l1 l2 e (ti_linked _ _ T)) as (L1 & _).
  destruct (split_behind _ _ (Hb l1 l2 eq_refl L1)) as (m1 & m2 & E & ->).
  destruct (tinv_move h l1 l2 m1 m2 e T E) as (T' & [_ Lv] & (_ & _ & _ & _ & Mi)).
  apply (TL_patch t h _ I e _ HTL T He); [eexists; exact T'|exact Mi|intros c Hc _; apply Lv; exact Hc].
Qed.

Lemma move_front_ok : forall h I e l, TL t h I -> tinv h l -> In e l -> okstep t I (move_front_aux h I e).
Proof.
  intros h I e l HTL T He. unfold move_front_aux. destruct (get_prev h e); [|apply okstep_id; exact HTL].
  unfold remove_iter_entry. apply (move_generic h I e l None HTL T He). intros. left; reflexivity.
Qed.

Lemma move_back_ok : forall h I e l, TL t h I -> tinv h l -> In e l -> okstep t I (move_back_aux h I e).
Proof.
  intros h I e l HTL T He. unfold move_back_aux. destruct (get_next h e); [|apply okstep_id; exact HTL].
  unfold remove_iter_entry. apply (move_generic h I e l _ HTL T He).
  intros l1 l2 El L1. rewrite (lk_tl _ _ L1). apply opt_in_last.
Qed.

Lemma move_before_ok : forall h I e f l, TL t h I -> tinv h l -> In e l -> In f l -> f <> e ->
  okstep t I (move_before_aux h I e f).
Proof.
  intros h I e f l HTL T He Hf Hfe. unfold move_before_aux.
  destruct (opt_pos_eqb (get_next h e) (Some f)); [apply okstep_id; exact HTL|].
  unfold remove_iter_entry. apply (move_generic h I e l _ HTL T He).
  intros l1 l2 El L1. apply (opt_in_prev _ _ f L1).
  rewrite El in Hf. eapply in_del; eassumption.
Qed.

Lemma move_behind_ok : forall h I e d l, TL t h I -> tinv h l -> In e l -> In d l -> d <> e ->
  okstep t I (move_behind_aux h I e d).
Proof.
  intros h I e d l HTL T He Hd Hde. unfold move_behind_aux.
  destruct (opt_pos_eqb (get_prev h e) (Some d)); [apply okstep_id; exact HTL|].
  unfold remove_iter_entry. apply (move_generic h I e l _ HTL T He).
  intros l1 l2 El L1. right. exists d. split; [reflexivity|].
  rewrite El in Hd. eapply in_del; eassumption.
Qed.

Lemma move_pos_ok : forall h I e idx l, TL t h I -> tinv h l -> In e l -> okstep t I (move_pos_aux h I e idx).
Proof.
  intros h I e idx l HTL T He. unfold move_pos_aux.
  destruct (idx =? 0); [eapply move_front_ok; eassumption|].
  destruct (cnt h <=? idx); [eapply move_back_ok; eassumption|].
  destruct (opt_pos_eqb (entry_at h idx) (Some e)); [apply okstep_id; exact HTL|].
  unfold remove_iter_entry. apply (move_generic h I e l _ HTL T He).
  intros l1 l2 El L1. destruct (idx <? cnt h / 2).
  - rewrite (lk_hd _ _ L1). rewrite (nth_next_suffix _ _ L1 _ [] (l1 ++ l2) eq_refl). apply opt_in_head_skipn.
  - rewrite (lk_tl _ _ L1). rewrite (nth_prev_prefix _ _ L1 _ (l1 ++ l2) [] (eq_sym (app_nil_r _))).
    destruct (opt_in_head_skipn (rev (l1 ++ l2)) (cnt h - 1 - idx)) as [E|(b & E & Hb)]; [left; exact E|right].
    exists b. split; [exact E|apply in_rev; exact Hb].
Qed.

(* ------------------------------------------------------------------ Clear *)

Lemma tinv_empty : forall c f a il, tinv (mkHt (PositiveMap.empty node) None None 0 c f a il) [].
Proof.
  intros. constructor.
  - constructor; try reflexivity; try constructor; intros e [].
  - reflexivity.
  - intros e H. exfalso. apply H. unfold getn. cbn. apply PositiveMap.gempty.
  - intros e H. exfalso. apply H. unfold getn. cbn. apply PositiveMap.gempty.
  - constructor.
Qed.

Lemma not_live_empty : forall c f a il e, ~ live (mkHt (PositiveMap.empty node) None None 0 c f a il) e.
Proof. intros. intro H. apply H. unfold getn. cbn. apply PositiveMap.gempty. Qed.

Lemma detach_iter_own : forall h it, iown (detach_iter h it) = None /\ icookie (detach_iter h it) = None.
Proof. intros. split; reflexivity. Qed.

Lemma clear_ok : forall dcap h I release, TL t h I -> okstep t I (clear_tab dcap h I release).
Proof.
  intros dcap h I release [HT Hnd Hreg Hown]. unfold clear_tab, okstep. cbn [fst snd]. rewrite detach_all_eq.
  assert (Fr : frame t I (map_its (detach_iter h) (ilist h) I)).
  { apply frame_map_its; [exact Hnd| |].
    - intros i it Hi Hg. destruct (Hreg i Hi) as (it0 & Hg0 & O & _). congruence.
    - intros it O. right. apply detach_iter_own. }
  split; [|exact Fr]. constructor.
  - exists []. apply tinv_empty.
  - constructor.
  - intros i [].
  - cbn [ilist]. intros i it' Hg' O'.
    destruct (in_dec Nat.eq_dec i (ilist h)) as [Hin|Hn].
    + rewrite map_its_in in Hg' by assumption. destruct (geti I i) as [it|]; [|discriminate].
      cbn in Hg'. inversion Hg'; subst. cbn in O'. discriminate.
    + rewrite map_its_notin in Hg' by assumption. destruct (Hown i it' Hg' O') as [HR HC]. split.
      * intro R. exfalso. apply Hn. apply HR. exact R.
      * intros c Hc. destruct (HC c Hc) as [R _]. exfalso. apply Hn. apply HR. exact R.
Qed.

(* ------------------------------------------------------------------ EnsureSize *)

Lemma tinv_with_cap : forall h l c, tinv h l -> tinv (with_cap h c) l.
Proof.
  intros h l c T. apply (tinv_same_nodes h _ l T); reflexivity.
Qed.

Lemma TL_with_cap : forall h I c, TL t h I -> TL t (with_cap h c) I.
Proof.
  intros h I c HTL. apply (TL_same_I t h); try assumption; try reflexivity.
  - destruct (tl_tinv _ _ _ HTL) as (l & T). exists l. apply tinv_with_cap. exact T.
  - intros; assumption.
Qed.

Lemma ensure_size_ok : forall dcap h I req shrink, TL t h I ->
  okstep t I (fst (ensure_size dcap h I req shrink)).
Proof.
  intros dcap h I req shrink HTL. unfold ensure_size.
  destruct (N.eqb _ (cap h)); [apply okstep_id; exact HTL|].
  destruct (N.eqb _ 0).
  - pose proof (clear_ok dcap h I true HTL) as C. destruct (clear_tab dcap h I true). exact C.
  - destruct (N.eqb _ 4294967295); [apply okstep_id; exact HTL|].
    cbn [fst]. apply okstep_id. apply TL_with_cap. exact HTL.
Qed.

End Moves.
