(* C17 -- the pointer loop of String::Replace(const String &, const String &, max, from) computes the level-0
   replacement: in place (the write offset never overtakes the read offset) and into the temporary String. *)
From Coq Require Import List NArith ZArith Bool Lia.
From Muscle Require Import Cont.StrL0 Cont.StrModel Cont.StrLemmas Cont.StrL0Facts.
Import ListNotations.
Local Open Scope N_scope.

(* the (possibly skipped) memmove of the bytes between two matches *)
Lemma step_move (mv : bool) b wp r k :
  wp <= r -> r + k <= lenN b -> (mv = false -> wp = r) ->
  let b1 := if mv then blit b wp (takeN k (dropN r b)) else b in
  lenN b1 = lenN b /\ takeN (wp + k) b1 = takeN wp b ++ takeN k (dropN r b) /\ dropN (r + k) b1 = dropN (r + k) b.
Proof.
  intros H1 H2 H3 b1. unfold b1.
  assert (Lk : lenN (takeN k (dropN r b)) = k) by (rewrite lenN_takeN, lenN_dropN; lia).
  destruct mv.
  - splits.
    + apply lenN_blit. lia.
    + rewrite <- Lk at 1. apply takeN_blit_cover. lia.
    + apply dropN_blit_after; lia.
  - rewrite (H3 eq_refl). splits; trivial. apply takeN_add.
Qed.

Section Repl.
Variables (orig junk rm wm : list N).
Hypothesis Forig : nulfree orig.
Hypothesis Nrm : rm <> [].
Let len := lenN orig.
Let b0 := orig ++ 0 :: junk.

Lemma lenN_b0 : lenN b0 = len + 1 + lenN junk.
Proof. unfold b0, len. rewrite lenN_app, lenN_cons. lia. Qed.
Lemma drop_b0 r : r <= len -> dropN r b0 = dropN r orig ++ 0 :: junk.
Proof. intros H. unfold b0. now rewrite dropN_app_le. Qed.
Lemma lenN_rm_pos : 0 < lenN rm.
Proof. destruct rm; [congruence|rewrite lenN_cons; lia]. Qed.

(* what an intact unread part gives *)
Lemma unread b r : r <= len -> dropN r b = dropN r b0 ->
  cstr (dropN r b) = dropN r orig /\
  (forall k, k <= len - r -> takeN k (dropN r b) = takeN k (dropN r orig)) /\
  (forall j, r <= j -> j <= len -> dropN j b = dropN j b0).
Proof.
  intros Hr Db. rewrite Db, (drop_b0 r Hr). splits.
  - apply cstr_nulfree_app. now apply nulfree_dropN.
  - intros k Hk. apply takeN_app_le. rewrite lenN_dropN. unfold len in *. lia.
  - intros j H1 H2. replace j with ((j - r) + r) by lia. rewrite <- !dropN_dropN. now rewrite Db.
Qed.

(* [w] is the write offset, None until the first match (nothing has moved yet, the buffer is the original up to r);
   [mv = false] (equal lengths) skips the memmove of the text between matches, so the write offset must equal r *)
Lemma repl_inplace_spec mv : lenN wm <= lenN rm -> (mv = false -> lenN wm = lenN rm) ->
  forall fuel b r w max cnt,
  r <= len -> (N.to_nat (len - r) < fuel)%nat ->
  lenN b = lenN b0 -> dropN r b = dropN r b0 ->
  (match w with Some wp => wp <= r /\ (mv = false -> wp = r) | None => takeN r b = takeN r orig end) ->
  let out := match w with Some wp => takeN wp b | None => takeN r orig end in
  let '(b', w', cnt') := repl_inplace fuel b len r w rm wm mv max cnt in
  let '(res, c) := replace_sub_fuel fuel (dropN r orig) rm wm max in
  cnt' = cnt + c /\ lenN b' = lenN b0 /\
  match w' with
  | Some wf => takeN wf b' = out ++ res /\ nthN wf b' = 0 /\ wf <= len
  | None => w = None /\ c = 0 /\ b' = b
  end.
Proof.
  intros Hwl Hmv. pose proof lenN_b0 as L0. pose proof lenN_rm_pos as Prm.
  induction fuel as [|f IH]; intros b r w max cnt Hr Hf Lb Db Hw out; [lia|].
  cbn [repl_inplace replace_sub_fuel].
  destruct (unread b r Hr Db) as (Ec & Etk & Edj). rewrite Ec.
  (* the write offset and what has been written so far, uniformly *)
  set (wpos := match w with Some wp => wp | None => r end).
  assert (Hwp : wpos <= r /\ (mv = false -> wpos = r)) by (unfold wpos; destruct w; [exact Hw|split; [lia|reflexivity]]).
  assert (Eout : out = takeN wpos b) by (unfold out, wpos; destruct w; [reflexivity|symmetry; exact Hw]).
  assert (Final : forall wp, w = Some wp ->
            let nb := len - r in
            let bf := upd (if mv then blit b wp (takeN nb (dropN r b)) else b) (wp + nb) 0 in
            lenN bf = lenN b0 /\ takeN (wp + nb) bf = out ++ dropN r orig /\ nthN (wp + nb) bf = 0 /\ wp + nb <= len).
  { intros wp Ew nb bf. subst w. destruct Hw as [Hw1 Hw2].
    destruct (step_move mv b wp r nb Hw1) as (M1 & M2 & M3); [unfold nb; lia|exact Hw2|].
    unfold bf. splits.
    - rewrite lenN_upd; [lia|]. rewrite M1. unfold nb. lia.
    - rewrite takeN_upd_before by (rewrite ?M1; unfold nb; lia). rewrite M2. unfold out. f_equal.
      rewrite Etk by (unfold nb; lia). apply takeN_all. rewrite lenN_dropN. unfold nb, len. lia.
    - apply nthN_upd_same. rewrite M1. unfold nb. lia.
    - unfold nb. lia. }
  destruct (0 <? max) eqn:Emax.
  2:{ destruct w as [wp|].
      - destruct (Final wp eq_refl) as (F1 & F2 & F3 & F4). cbn zeta. splits; trivial; lia.
      - splits; trivial; lia. }
  destruct (find_sub rm (dropN r orig)) as [k|] eqn:Ef.
  2:{ destruct w as [wp|].
      - destruct (Final wp eq_refl) as (F1 & F2 & F3 & F4). cbn zeta. splits; trivial; lia.
      - splits; trivial; lia. }
  (* a match at offset k of the unread part *)
  destruct (find_sub_sound _ _ _ Ef) as [Bk Tk]. rewrite lenN_dropN in Bk. fold len in Bk.
  set (r' := r + k + lenN rm).
  assert (Hr' : r' <= len) by (unfold r'; lia).
  (* the state after the segment has been moved *)
  assert (Seg : exists b1, (match w with
                            | Some wp => ((if mv then blit b wp (takeN k (dropN r b)) else b), wp + k)
                            | None => (b, r + k) end) = (b1, wpos + k) /\
                lenN b1 = lenN b /\ takeN (wpos + k) b1 = takeN wpos b ++ takeN k (dropN r b) /\ dropN (r + k) b1 = dropN (r + k) b).
  { unfold wpos. destruct w as [wp|].
    - destruct Hw as [Hw1 Hw2]. destruct (step_move mv b wp r k Hw1) as (M1 & M2 & M3); [lia|exact Hw2|].
      eexists. splits; try reflexivity; trivial.
    - exists b. splits; trivial. apply takeN_add. }
  destruct Seg as (b1 & E1 & M1 & M2 & M3). rewrite E1. clear E1.
  set (w1 := wpos + k) in *. set (b2 := blit b1 w1 wm).
  assert (Hw1 : w1 + lenN wm <= r') by (unfold w1, r'; lia).
  assert (Lb2 : lenN b2 = lenN b0) by (unfold b2; rewrite lenN_blit; lia).
  assert (Db2 : dropN r' b2 = dropN r' b0).
  { unfold b2. rewrite dropN_blit_after by lia.
    unfold r'. replace (r + k + lenN rm) with (lenN rm + (r + k)) by lia. rewrite <- dropN_dropN, M3, dropN_dropN.
    replace (lenN rm + (r + k)) with r' by (unfold r'; lia). apply Edj; unfold r'; lia. }
  assert (T2 : takeN (w1 + lenN wm) b2 = out ++ takeN k (dropN r orig) ++ wm).
  { unfold b2. rewrite takeN_blit_cover by lia. rewrite M2, Eout, Etk by lia. now rewrite <- app_assoc. }
  specialize (IH b2 r' (Some (w1 + lenN wm)) (max - 1) (cnt + 1) Hr').
  cbn zeta in IH.
  assert (Rest : dropN (k + lenN rm) (dropN r orig) = dropN r' orig) by (rewrite dropN_dropN; f_equal; unfold r'; lia).
  rewrite Rest.
  destruct (repl_inplace f b2 len r' (Some (w1 + lenN wm)) rm wm mv (max - 1) (cnt + 1)) as [[b' w'] cnt'].
  destruct (replace_sub_fuel f (dropN r' orig) rm wm (max - 1)) as [res' c'].
  destruct IH as (I1 & I2 & I3); trivial.
  { unfold r'. lia. }
  { split; [exact Hw1|]. intros Em. destruct Hwp as [_ Hwp]. rewrite (Hmv Em). unfold w1, r'. rewrite (Hwp Em). lia. }
  splits; [lia|exact I2|].
  destruct w' as [wf|]; [|destruct I3 as (X & _); discriminate X].
  destruct I3 as (J1 & J2 & J3). splits; trivial.
  rewrite J1, T2. now rewrite <- !app_assoc.
Qed.

(* into the temporary *)
Lemma repl_copy_spec sb : lenN sb >= len + 1 -> takeN (len + 1) sb = orig ++ [0] ->
  forall fuel r tb w max cnt,
  r <= len -> (N.to_nat (len - r) < fuel)%nat ->
  w + lenN (fst (replace_sub_fuel fuel (dropN r orig) rm wm max)) + 1 <= lenN tb ->
  let '(tb', w', cnt') := repl_copy fuel sb len r tb w rm wm max cnt in
  let '(res, c) := replace_sub_fuel fuel (dropN r orig) rm wm max in
  cnt' = cnt + c /\ lenN tb' = lenN tb /\ takeN w' tb' = takeN w tb ++ res /\ nthN w' tb' = 0 /\ w' = w + lenN res.
Proof.
  intros Lsb Tsb. pose proof lenN_rm_pos as Prm.
  assert (Src : forall r, r <= len -> cstr (dropN r sb) = dropN r orig /\
                 (forall k, k <= len - r -> takeN k (dropN r sb) = takeN k (dropN r orig))).
  { intros r Hr.
    assert (E : dropN r (takeN (len + 1) sb) = dropN r orig ++ [0]) by (rewrite Tsb; apply dropN_app_le; unfold len in *; lia).
    assert (D : exists tail, dropN r sb = dropN r orig ++ 0 :: tail).
    { exists (dropN (len + 1) sb). rewrite <- (takeN_dropN (len + 1) sb) at 1.
      rewrite dropN_app_le by (rewrite lenN_takeN; lia). rewrite E, <- app_assoc. reflexivity. }
    destruct D as [tail D]. rewrite D. split.
    - apply cstr_nulfree_app. now apply nulfree_dropN.
    - intros k Hk. apply takeN_app_le. rewrite lenN_dropN. unfold len in *. lia. }
  induction fuel as [|f IH]; intros r tb w max cnt Hr Hf Hcap; [lia|].
  cbn [repl_copy replace_sub_fuel] in *.
  destruct (Src r Hr) as (Ec & Etk). rewrite Ec.
  assert (Final : let nb := len - r in let tf := upd (blit tb w (takeN nb (dropN r sb))) (w + nb) 0 in
            w + (len - r) + 1 <= lenN tb ->
            lenN tf = lenN tb /\ takeN (w + nb) tf = takeN w tb ++ dropN r orig /\ nthN (w + nb) tf = 0 /\ w + nb = w + lenN (dropN r orig)).
  { intros nb tf Hc.
    assert (Ld : takeN nb (dropN r sb) = dropN r orig).
    { unfold nb. rewrite Etk by lia. apply takeN_all. rewrite lenN_dropN. unfold len. lia. }
    assert (Lnb : lenN (dropN r orig) = nb) by (rewrite lenN_dropN; unfold nb, len; lia).
    unfold tf. rewrite Ld. splits.
    - rewrite lenN_upd; rewrite lenN_blit; lia.
    - rewrite takeN_upd_before by (rewrite ?lenN_blit; lia). rewrite <- Lnb. apply takeN_blit_cover. lia.
    - apply nthN_upd_same. rewrite lenN_blit; lia.
    - lia. }
  destruct (0 <? max) eqn:Emax.
  2:{ cbn [fst] in Hcap. rewrite lenN_dropN in Hcap. fold len in Hcap.
      destruct Final as (F1 & F2 & F3 & F4); [lia|]. cbn zeta. splits; trivial; lia. }
  destruct (find_sub rm (dropN r orig)) as [k|] eqn:Ef.
  2:{ cbn [fst] in Hcap. rewrite lenN_dropN in Hcap. fold len in Hcap.
      destruct Final as (F1 & F2 & F3 & F4); [lia|]. cbn zeta. splits; trivial; lia. }
  destruct (find_sub_sound _ _ _ Ef) as [Bk Tk]. rewrite lenN_dropN in Bk. fold len in Bk.
  set (r' := r + k + lenN rm).
  assert (Hr' : r' <= len) by (unfold r'; lia).
  assert (Rest : dropN (k + lenN rm) (dropN r orig) = dropN r' orig) by (rewrite dropN_dropN; f_equal; unfold r'; lia).
  rewrite Rest in *.
  specialize (IH r' (blit (blit tb w (takeN k (dropN r sb))) (w + k) wm) (w + k + lenN wm) (max - 1) (cnt + 1) Hr').
  destruct (replace_sub_fuel f (dropN r' orig) rm wm (max - 1)) as [res' c'] eqn:ER. cbn [fst] in *.
  rewrite !lenN_app, lenN_takeN, lenN_dropN in Hcap. fold len in Hcap.
  assert (Lseg : lenN (takeN k (dropN r sb)) = k) by (rewrite Etk by lia; rewrite lenN_takeN, lenN_dropN; unfold len; lia).
  assert (Lt1 : lenN (blit tb w (takeN k (dropN r sb))) = lenN tb) by (rewrite lenN_blit; lia).
  assert (Lt2 : lenN (blit (blit tb w (takeN k (dropN r sb))) (w + k) wm) = lenN tb) by (rewrite lenN_blit; lia).
  destruct (repl_copy f sb len r' _ (w + k + lenN wm) rm wm (max - 1) (cnt + 1)) as [[tb' w'] cnt'].
  destruct IH as (I1 & I2 & I3 & I4 & I5).
  { unfold r'. lia. }
  { rewrite Lt2. lia. }
  splits; try lia.
  - rewrite I3. rewrite takeN_blit_cover by lia.
    rewrite <- Lseg at 1. rewrite takeN_blit_cover by lia. rewrite Etk by lia. now rewrite <- !app_assoc.
  - rewrite I5, !lenN_app, lenN_takeN, lenN_dropN. fold len. lia.
Qed.

End Repl.
