(* C09 -- traversal theory: every calm operation (one that does not relink surviving entries) is in
   the calm relation for every registered iterator it does not itself operate on. *)
From Coq Require Import List Arith ZArith NArith PArith Bool Lia FMapPositive Permutation.
From Muscle Require Import Cont.HtModel Cont.HtStep Cont.HtIdeal Cont.HtLemmas Cont.HtRepr Cont.HtWalk Cont.HtIters
                           Cont.HtPut Cont.HtPend Cont.HtRefTab Cont.HtInv Cont.HtSafe Cont.HtSwap Cont.HtTravW.
Import ListNotations.

Definition touches (i : nat) (o : op) : bool :=
  match o with
  | OIterNew j _ _ | OIterAt j _ _ _ | OIterAdv j | OIterRet j | OIterSetBw j _ | OIterDel j | OIterCopy j _ => Nat.eqb j i
  | _ => false
  end.

Section Calm.
Variable var : variant.
Variable dcap : N.

Definition put_calm (w : world) (t : nat) (k : Z) : Prop :=
  var = VPlain \/ find_key (ensure_allocated dcap (gett w t)) k = None.

(* operations that may relink a surviving entry are calm only when they change nothing *)
Definition calm (w : world) (o : op) : Prop :=
  match o with
  | OPut t k _ => put_calm w t k
  | OMoveToTable _ u k | OCopyToTable _ u k => put_calm w u k
  | OPutAtFront _ _ _ | OPutAtBack _ _ _ | OPutBefore _ _ _ _ | OPutBehind _ _ _ _ | OPutAtPos _ _ _ _
  | OMoveFront _ _ | OMoveBack _ _ | OMoveBefore _ _ _ | OMoveBehind _ _ _ | OMovePos _ _ _
  | OGetMoveFront _ _ | OGetMoveBack _ _ | OSortKey _ | OSortVal _ | OSort _ | OReposition _ _
  | OSetAutoSort _ _ _ => fst (step1 var dcap w o) = w
  | OCopyFrom _ _ cf => cf = true \/ fst (step1 var dcap w o) = w
  | OCopyCtor _ _ => True
  | _ => True
  end.

Lemma find_key_ensure_allocated : forall h k, find_key (ensure_allocated dcap h) k = find_key h k.
Proof. intros. unfold ensure_allocated. destruct (N.eqb (cap h) 0); [apply find_key_with_cap|reflexivity]. Qed.

Lemma put_calm_absent : forall w t k, find_key (gett w t) k = None -> put_calm w t k.
Proof. intros w t k Ef. right. rewrite find_key_ensure_allocated. exact Ef. Qed.

Lemma ids_empty : forall c f a il, ids (mkHt (PositiveMap.empty node) None None 0 c f a il) = [].
Proof. reflexivity. Qed.

Lemma ensure_size_its : forall h I req, snd (fst (ensure_size dcap h I req false)) = I.
Proof. intros h I req. destruct (ensure_size_noshrink dcap h I req) as (h1 & st & E & _). rewrite E. reflexivity. Qed.

Lemma copy_from_its : forall h I src srccap, snd (fst (copy_from var dcap h I src srccap true)) = detach_all h I.
Proof.
  intros h I src srccap. unfold copy_from, clear_tab. destruct src as [|kv src']; [reflexivity|].
  rewrite (surjective_pairing (ensure_size _ _ _ _ _)), (surjective_pairing (fst (ensure_size _ _ _ _ _))), ensure_size_its.
  destruct (snd _ =? 0); reflexivity.
Qed.

(* iterator operations on other slots only touch registration lists *)
Lemma ids_sett_ilist : forall w t il u, ids (gett (sett w t (with_ilist (gett w t) il)) u) = ids (gett w u) /\
  fresh (gett (sett w t (with_ilist (gett w t) il)) u) = fresh (gett w u).
Proof.
  intros w t il u. destruct (Nat.eq_dec t u) as [->|Htu]; [|rewrite gett_sett_other by exact Htu; auto].
  destruct (Nat.lt_ge_cases u (length (tabs w))) as [Hu|Hu].
  - rewrite gett_sett_same by exact Hu. split; [apply ids_congr; reflexivity|reflexivity].
  - unfold sett, gett. cbn. unfold upd_nth. apply Nat.ltb_ge in Hu. rewrite Hu. auto.
Qed.

Lemma ids_unregister : forall w j t, ids (gett (unregister w j) t) = ids (gett w t) /\ fresh (gett (unregister w j) t) = fresh (gett w t).
Proof.
  intros w j t. unfold unregister. destruct (geti (its w) j) as [it|]; [|auto]. destruct (inoreg it); [auto|].
  destruct (iown it) as [u|]; [apply ids_sett_ilist|auto].
Qed.

Lemma ids_register : forall w j t c bw nr scr u, ids (gett (register w j t c bw nr scr) u) = ids (gett w u) /\
  fresh (gett (register w j t c bw nr scr) u) = fresh (gett w u).
Proof.
  intros. unfold register. destruct nr; [auto|]. destruct c; [|auto].
  apply (ids_sett_ilist (seti_w w _) t _ u).
Qed.

Lemma geti_register_other : forall w j t c bw nr scr i, i <> j -> geti (its (register w j t c bw nr scr)) i = geti (its w) i.
Proof.
  intros. unfold register. destruct nr; [cbn; apply geti_seti_other; congruence|].
  destruct c; cbn; apply geti_seti_other; congruence.
Qed.

Lemma keeps_reregister : forall w i j t c bw nr scr, j <> i -> reg w i -> keeps i w (register (unregister w j) j t c bw nr scr).
Proof.
  intros w i j t c bw nr scr Hji R. apply keeps_same; [rewrite geti_register_other, its_unregister by congruence; reflexivity| |exact R].
  intros t0. destruct (ids_register (unregister w j) j t c bw nr scr t0) as [A B]. destruct (ids_unregister w j t0) as [A2 B2]. split; congruence.
Qed.

Lemma keeps_unregister : forall w i j x, j <> i -> reg w i -> keeps i w (seti_w (unregister w j) (seti (its (unregister w j)) j x)).
Proof.
  intros w i j x Hji R. apply keeps_same; [cbn; rewrite its_unregister; apply geti_seti_other; exact Hji|apply ids_unregister|exact R].
Qed.

Lemma calm_step : forall w o i, WF w -> calm w o -> touches i o = false -> reg w i ->
  keeps i w (fst (step1 var dcap w o)).
Proof.
  intros w o i W Hc Ht R. pose proof (wf_tabs _ W) as WT. pose proof (keeps_refl i w R) as Same.
  destruct o; cbn [calm] in Hc; try (rewrite Hc; exact Same); cbn [step1]; try exact Same; try vt ltac:(exact Same).
  - (* Put *) rewrite fst_put4.
    apply (keeps_cstep w t (_, _) i V1 (cstep_put_aux var dcap t _ _ k v (WT t V1) Hc) R).
  - (* PutIfAbsent *) destruct (find_key (gett w t) k) eqn:Ef; [exact Same|]. rewrite fst_put4.
    apply (keeps_cstep w t (_, _) i V1 (cstep_put_aux var dcap t _ _ k v (WT t V1) (put_calm_absent w t k Ef)) R).
  - (* GetOrPut *) destruct (find_key (gett w t) k) eqn:Ef; [exact Same|]. rewrite fst_put4.
    apply (keeps_cstep w t (_, _) i V1 (cstep_put_aux var dcap t _ _ k v (WT t V1) (put_calm_absent w t k Ef)) R).
  - (* Remove *) destruct (find_key (gett w t) k) as [e|] eqn:Ef; [|exact Same]. rewrite fst_put2.
    apply (keeps_cstep w t _ i V1 (cstep_remove_entry t _ _ e (WT t V1) (TL_find_live _ _ _ _ _ (WT t V1) Ef)) R).
  - (* RemoveFirst *) destruct (hd (gett w t)) as [e|] eqn:Eh; [|exact Same]. rewrite fst_put2.
    apply (keeps_cstep w t _ i V1 (cstep_remove_entry t _ _ e (WT t V1) (TL_end_live t _ _ false e (WT t V1) Eh)) R).
  - (* RemoveLast *) destruct (tl (gett w t)) as [e|] eqn:Eh; [|exact Same]. rewrite fst_put2.
    apply (keeps_cstep w t _ i V1 (cstep_remove_entry t _ _ e (WT t V1) (TL_end_live t _ _ true e (WT t V1) Eh)) R).
  - (* Ensure *) rewrite fst_put3. apply (keeps_cstep w t _ i V1 (cstep_ensure_size t dcap _ _ n shrink (WT t V1)) R).
  - (* ShrinkFit *) destruct (N.ltb _ _); [exact Same|]. rewrite fst_put3.
    apply (keeps_cstep w t _ i V1 (cstep_ensure_size t dcap _ _ _ true (WT t V1)) R).
  - (* EnsureCanPut *) destruct (N.ltb _ _); [exact Same|]. rewrite fst_put3.
    apply (keeps_cstep w t _ i V1 (cstep_ensure_size t dcap _ _ _ false (WT t V1)) R).
  - (* Clear *) apply (keeps_emptied w t _ i W V1 R).
  - (* CopyFrom *) destruct Hc as [->|Hc]; [|cbn [step1] in Hc; unfold valid_t in Hc;
      rewrite (proj2 (Nat.ltb_lt _ _) V1), (proj2 (Nat.ltb_lt _ _) V2) in Hc; cbn [andb] in Hc; rewrite Hc; exact Same].
    destruct (t =? u); [exact Same|]. rewrite fst_put3, copy_from_its. apply (keeps_emptied w t _ i W V1 R).
  - (* CopyCtor *) destruct (t =? u); [exact Same|]. unfold clear_tab. cbn [fst fresh].
    rewrite fst_put3, copy_from_its. apply (keeps_emptied w t _ i W V1 R).
  - (* Swap *) destruct (t =? u) eqn:E; [exact Same|]. apply Nat.eqb_neq in E.
    apply (keeps_exchange w t u _ _ i W V1 V2 E); [repeat split..|exact R].
  - (* Equal *) destruct (valid_t w t && valid_t w u); exact Same.
  - (* MoveToTable: a Put into tab[u], then the removal from tab[t] *)
    destruct (find_key (gett w t) k) as [e|] eqn:Ef; [|exact Same].
    destruct (t =? u) eqn:Etu; [exact Same|]. apply Nat.eqb_neq in Etu.
    destruct (val_of (gett w t) e) as [v|]; [|exact Same]. rewrite fst_put4k.
    pose proof (cstep_put_aux var dcap u _ _ k v (WT u V2) Hc) as S1.
    set (hu := pa_h _) in *. set (I1 := pa_i _) in *.
    pose proof (keeps_cstep w u (hu, I1) i V2 S1 R) as K1. pose proof (WF_okstep _ _ _ W V2 (cs_ok _ _ _ _ S1)) as W1. cbn [fst snd] in K1, W1.
    assert (Et : gett (put_ti w u hu I1) t = gett w t) by (apply gett_put_other; congruence).
    assert (V1' : t < length (tabs (put_ti w u hu I1))) by (rewrite len_put; exact V1).
    assert (Le : live (gett (put_ti w u hu I1) t) e) by (rewrite Et; apply (TL_find_live _ _ _ _ _ (WT t V1) Ef)).
    pose proof (keeps_cstep _ t _ i V1' (cstep_remove_entry t _ _ e (wf_tabs _ W1 t V1') Le) (proj2 K1)) as K2.
    rewrite Et, its_put in K2. destruct (remove_entry (gett w t) I1 e) as [ht1 I2].
    exact (keeps_trans i _ _ _ W K1 K2).
  - (* CopyToTable *) destruct (find_key (gett w t) k) as [e|] eqn:Ef; [|exact Same].
    destruct (t =? u); [exact Same|]. destruct (val_of (gett w t) e) as [v|]; [|exact Same]. rewrite fst_put4.
    apply (keeps_cstep w u (_, _) i V2 (cstep_put_aux var dcap u _ _ k v (WT u V2) Hc) R).
  - (* RemoveTable *) destruct (t =? u).
    + apply (keeps_emptied w t _ i W V1 R).
    + rewrite fst_put3. apply (keeps_cstep w t _ i V1 (cstep_remove_keys t _ _ _ (WT t V1)) R).
  - (* Intersect *) destruct (t =? u); [exact Same|]. rewrite fst_put3.
    apply (keeps_cstep w t _ i V1 (cstep_intersect_ids t _ _ _ _ (WT t V1)) R).
  - (* Destroy *) apply (keeps_emptied w t _ i W V1 R).
  - (* MoveCtor: the destruction of tab[t], then the exchange *)
    destruct (t =? u) eqn:E; [exact Same|]. apply Nat.eqb_neq in E.
    unfold clear_tab. cbn [fst fresh]. rewrite (movector_exchange w t u dcap _ V1 E).
    pose proof (keeps_emptied w t (mkHt (PositiveMap.empty node) None None 0 dcap (fresh (gett w t)) true []) i W V1 R) as K1.
    apply (keeps_trans i _ _ _ W K1).
    apply keeps_exchange; rewrite ?len_put, ?gett_put_other, ?gett_put_same by assumption; try assumption; [|repeat split..|exact (proj2 K1)].
    apply (WF_okstep w t (_, _) W V1 (emptied_ok t _ _ dcap true (WT t V1))).
  - (* Prealloc *) unfold clear_tab. cbn [fst fresh].
    rewrite fst_put3, ensure_size_its. apply (keeps_emptied w t _ i W V1 R).
  - (* IterNew j *) cbn [touches] in Ht. apply Nat.eqb_neq in Ht.
    destruct (valid_i w i0 && valid_t w t); [|exact Same]. apply (keeps_reregister w i i0 _ _ _ _ _ Ht R).
  - (* IterAt j *) cbn [touches] in Ht. apply Nat.eqb_neq in Ht.
    destruct (valid_i w i0 && valid_t w t); [|exact Same]. apply (keeps_reregister w i i0 _ _ _ _ _ Ht R).
  - (* IterAdv j *) cbn [touches] in Ht. apply Nat.eqb_neq in Ht. destruct (geti (its w) i0); [|exact Same].
    apply keeps_same; [cbn; apply geti_seti_other; exact Ht|intros; split; reflexivity|exact R].
  - (* IterRet j *) cbn [touches] in Ht. apply Nat.eqb_neq in Ht. destruct (geti (its w) i0); [|exact Same].
    apply keeps_same; [cbn; apply geti_seti_other; exact Ht|intros; split; reflexivity|exact R].
  - (* IterSetBw j *) cbn [touches] in Ht. apply Nat.eqb_neq in Ht. destruct (geti (its w) i0); [|exact Same].
    apply keeps_same; [cbn; apply geti_seti_other; exact Ht|intros; split; reflexivity|exact R].
  - (* IterDel j *) cbn [touches] in Ht. apply Nat.eqb_neq in Ht.
    destruct (valid_i w i0); [|exact Same]. apply (keeps_unregister w i i0 None Ht R).
  - (* IterCopy j from k *) cbn [touches] in Ht. apply Nat.eqb_neq in Ht.
    destruct (valid_i w i0 && negb (i0 =? j)); [|exact Same]. destruct (geti (its w) j) as [src|]; [|exact Same]. cbn [fst].
    destruct (iown src) as [t0|]; [apply (keeps_reregister w i i0 _ _ _ _ _ Ht R)|apply (keeps_unregister w i i0 _ Ht R)].
Qed.

End Calm.
