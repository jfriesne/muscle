(* C17 -- the refinement theorem: every operation of the level-1 model has the level-0 effect. *)
From Coq Require Import List NArith ZArith Bool Lia.
From Muscle Require Import Cont.StrL0 Cont.StrModel Cont.StrSpec Cont.StrLemmas Cont.StrGrow Cont.StrCore Cont.StrOps Cont.StrL0Facts Cont.StrNulfree Cont.StrProd.
Import ListNotations.
Local Open Scope N_scope.

Definition sarg_ok (a : sarg) : Prop := match a with ALit l => nulfree l /\ lenN l < LIM | ASelf => True end.

(* well-formed operands: literals are NUL-free and shorter than LIM; characters that get stored are not NUL *)
Fixpoint args_ok (o : op) : Prop :=
  match o with
  | OSetCstr c _ | OAppendC c | OInsertChars _ c _ | OMinusC c | OIndexOfC c _ => carg_ok c
  | OSetFrom a _ _ | OAppendS a | OMinusS a | OIndexOfS a _ | OLastIndexOfS1 a | OLastIndexOfS a _ | OCountS a _
  | OStartsS a | OEndsS a | OStartsSI a | OEndsSI a | OCompare a | OCompareI a | OEqualsI a | OIndexOfSI a _ | OLastIndexOfSI a _
  | OSubstringAfter a | OSubstringUntil _ a | OWithInsertS _ a _ | OArgS a | OWithSuffixS a | OWithPrefixS a
  | OWithoutSuffixS a _ | OWithoutPrefixS a _ | OPlusS a | OWithoutSuffixSI a _ | OWithoutPrefixSI a _ | OGetDistance a _ | ONumCmp a _ | OMinusPS a => sarg_ok a
  | OReplaceS a b _ _ | OWithReplS a b _ _ => sarg_ok a /\ sarg_ok b
  | OWithWord _ a sep => sarg_ok a /\ nulfree sep
  | OReplaceMulti pairs _ | OWithReplMulti pairs _ => Forall (fun p => nulfree (snd p)) pairs
  | OEscaped seps _ => nulfree seps
  | OArgFloatText buf _ => nulfree buf
  | OAppendCh ch | OSetAt _ ch | OPlusCh ch | OChPlus ch => ch <> 0
  | OCPlus lit => nulfree lit /\ lenN lit < LIM
  | OReplaceCh _ b _ _ | OWithReplCh _ b _ _ => b <> 0
  | OSwap _ l => nulfree l /\ lenN l < LIM
  | OUnflatten bytes => lenN bytes < LIM
  | OUnflattenW arena _ _ => lenN arena < LIM
  | OArgInt z | OShiftInt z => (- 9223372036854775808 <= z < 18446744073709551616)%Z      (* any 64-bit integer, signed or unsigned *)
  | OAssign o' => args_ok o'
  | _ => True
  end.

(* an upper bound of the largest buffer the operation asks for, in terms of the ideal string.  OShiftBool appends at most
   "false" (5 bytes + NUL); Replace/Arg: at most n matches, each growing the text by at most the replacement; OEscaped:
   the prealloc asks for the length plus twice the number of bytes to escape; OArgFloatText: the float text is at most
   buf, m zeros and a point (float_text_facts), built first and then used as the value of Arg *)
Fixpoint need (l : list N) (o : op) : N :=
  let n := lenN l in
  match o with
  | OAppendS a | OPlusS a | OWithInsertS _ a _ | OWithSuffixS a | OWithPrefixS a => n + lenN (lit_of l a) + 1
  | OAppendC c | OInsertChars _ c _ => n + lenN (clit_of l c) + 1
  | OAppendCh _ | OWithSuffixCh _ | OWithPrefixCh _ | OPlusCh _ | OChPlus _ => n + 2
  | OCPlus lit => n + lenN lit + 1
  | OShiftInt z => n + lenN (dec_of_Z z) + 1
  | OShiftBool _ => n + 6
  | OWithWord _ a sep => n + lenN (lit_of l a) + 2 * lenN sep + 1
  | OIndented k _ => n * (k + 1) + k + 1
  | OReplaceMulti pairs m | OWithReplMulti pairs m => N.max n (lenN (fst (l0_replace_multi l pairs m))) + 1
  | OEscaped _ _ => 3 * n + 1
  | OArgFloatText buf m => lenN buf + m + 3 + n + (lenN buf + m + 1) * n
  | OPrealloc k => k + 1
  | OShrink extra => n + 1 + extra
  | OReplaceS _ wm _ _ | OWithReplS _ wm _ _ => n + lenN (lit_of l wm) * n + 1
  | OArgS a => n + lenN (lit_of l a) * n + 1
  | OArgInt z => n + lenN (dec_of_Z z) * n + 1
  | OWithInsertCh _ _ count => n + count + 1
  | OPadded m _ _ => m + 1
  | OAssign o' => need l o'
  | _ => n + 1
  end.

Definition op_ok (l : list N) (o : op) : Prop := lenN l < LIM /\ args_ok o /\ need l o <= LIM.

Lemma lit_nulfree l a : nulfree l -> sarg_ok a -> nulfree (lit_of l a).
Proof. intros F A. destruct a; cbn [lit_of]; [apply A|exact F]. Qed.
Lemma lit_len l a : lenN l < LIM -> sarg_ok a -> lenN (lit_of l a) < LIM.
Proof. intros B A. destruct a; cbn [lit_of]; [apply A|exact B]. Qed.
Local Hint Resolve lit_nulfree lit_len : core.

(* the decimal text of a 64-bit integer is short: [dec_fuel] writes at most its fuel, S (N.size n) <= 65 digits, and
   [dec_of_Z] may put a sign before them: 66 *)
Lemma lenN_dec_fuel f n acc : lenN (dec_fuel f n acc) <= N.of_nat f + lenN acc.
Proof.
  revert n acc. induction f as [|f IH]; intros n acc; cbn [dec_fuel]; [lia|].
  destruct (n / 10 =? 0); [rewrite lenN_cons; lia|].
  specialize (IH (n / 10) ((48 + n mod 10) :: acc)). rewrite lenN_cons in IH. lia.
Qed.
Lemma size_64 n : n < 18446744073709551616 -> N.size n <= 64.
Proof.
  intros H. pose proof (N.size_le n) as S.
  destruct (N.le_gt_cases (N.size n) 64) as [L|G]; [exact L|].
  assert (P : 2 ^ 65 <= 2 ^ N.size n) by (apply N.pow_le_mono_r; lia).
  change (2 ^ 65) with 36893488147419103232 in P. rewrite N.succ_double_spec in S. lia.
Qed.
Lemma lenN_dec_of_Z z : (- 9223372036854775808 <= z < 18446744073709551616)%Z -> lenN (dec_of_Z z) < LIM.
Proof.
  intros H. unfold dec_of_Z, dec_of_N, LIM.
  assert (B : forall n, n < 18446744073709551616 -> lenN (dec_fuel (S (N.to_nat (N.size n))) n []) <= 66).
  { intros n Hn. pose proof (lenN_dec_fuel (S (N.to_nat (N.size n))) n []) as L. pose proof (size_64 n Hn).
    rewrite lenN_nil in L. lia. }
  destruct z as [|p|p].
  - pose proof (B 0 ltac:(lia)). cbn [Z.to_N] in *. lia.
  - pose proof (B (N.pos p) ltac:(lia)). cbn [Z.to_N] in *. lia.
  - pose proof (B (N.pos p) ltac:(lia)). rewrite lenN_cons. lia.
Qed.

Section OutInv.
Variable M : N.
Local Notation inv := (inv M).
(* a produced String satisfies the invariant too *)
Definition out_inv (r : out1) : Prop :=
  match r with R1Str x => inv x | R1StrNat x _ => inv x | _ => True end.
End OutInv.

Section Cases.
Context {M TH PG OV jk : N} {P : str_params M TH PG OV jk}.
Local Set Default Proof Using "P".

Local Notation slen := (slen M).
Local Notation abs := (abs M).
Local Notation inv := (inv M).
Local Notation rep := (rep M).
Local Notation osrc := (osrc M).
Local Notation src_of := (src_of M).
Local Notation ctor_copy := (ctor_copy M TH PG OV jk true).
Local Notation mutate := (mutate M TH PG OV jk true).
Local Notation produce := (produce M TH PG OV jk true).
Local Notation abs_out := (abs_out M).
Local Notation out_inv := (out_inv M).

Lemma arg_src_ok a : sarg_ok a -> osrc_ok (arg_src a).
Proof. intros A. destruct a as [l|]; cbn [arg_src]; [|exact Logic.I]. split; [apply src_ok_lit|apply A]. Qed.
Lemma osrc_bytes s a : src_bytes (osrc s (arg_src a)) = lit_of (abs s) a.
Proof. destruct a as [l|]; cbn [arg_src StrModel.osrc lit_of]; [apply src_bytes_lit|reflexivity]. Qed.
Lemma osrc_len s a : inv s -> snd (osrc s (arg_src a)) = lenN (lit_of (abs s) a).
Proof. intros I. destruct a as [l|]; cbn [arg_src StrModel.osrc lit_of src_lit src_of snd]; [reflexivity|symmetry; apply (lenN_abs s I)]. Qed.
Lemma osrc_src_ok s a : inv s -> src_ok (osrc s (arg_src a)).
Proof. intros I. destruct a as [l|]; cbn [arg_src StrModel.osrc]; [apply src_ok_lit|now apply src_ok_of]. Qed.

Lemma out_str x l : rep x l -> abs_out (R1Str x) = R0Str l /\ out_inv (R1Str x).
Proof. intros [I <-]. now split. Qed.

Lemma mutate_refines s o :
  inv s -> nulfree (abs s) -> op_ok (abs s) o ->
  match mutate s o, mutate0 (abs s) o with
  | Some (s', r), Some (l', r0) => rep s' l' /\ abs_out r = r0 /\ out_inv r
  | None, None => True
  | _, _ => False
  end.
Proof.
  intros I F (Bl & Ao & Nd).
  destruct o; cbn [StrModel.mutate mutate0 args_ok need StrSpec.abs_out StrRefine.out_inv] in *; trivial;
    rewrite ?(lenN_abs s I) in *; rewrite <- ?(osrc_bytes s).
  - (* SetCstr *)
    destruct (set_cstr_spec s c maxLen I (fun _ => F) Ao) as (x & -> & R). now split.
  - (* SetFromString *)
    destruct (set_from_spec s (arg_src a) first after I (arg_src_ok a Ao)) as (x & -> & R). now split.
  - (* += String *)
    split; [|now split]. apply append_s_spec; trivial; [now apply arg_src_ok|now rewrite (osrc_len s a I)].
  - (* OAppendC *) split; [now apply append_c_spec|now split].
  - (* OAppendCh *) split; [now apply append_ch_spec|now split].
  - (* InsertChars *)
    destruct (insert_chars_spec s idx c maxLen I F Ao Nd) as (x & -> & R). now split.
  - (* OClear *) split; [apply (clear_spec s I)|now split].
  - (* OClearFlush *) split; [split; apply (inv_clear_and_flush s I)|now split].
  - (* Prealloc *)
    destruct (prealloc_ok s n I Nd) as (x & -> & I' & A' & _). now split.
  - (* ShrinkToFit *)
    destruct (shrink_ok s extra I Nd) as (x & -> & R). now split.
  - (* OTruncChars *) split; [now apply trunc_chars_rep|now split].
  - (* OTruncTo *) split; [now apply trunc_to_spec|now split].
  - (* SwapContents *)
    split; [now apply ctor_pre_lit_spec|now split].
  - (* OMinusCh *) split; [now apply minus_ch_spec|now split].
  - (* OMinusS *) split; [|now split]. apply minus_s_spec; trivial. now apply arg_src_ok.
  - (* OMinusC *) split; [now apply minus_c_spec|now split].
  - (* OReverse *) split; [now apply reverse_spec|now split].
  - (* Replace(char, char) *)
    destruct (replace_ch_spec s a b max from I) as (I' & A' & K').
    destruct (StrModel.replace_ch1 M s a b max from) as [x k]. destruct (l0_replace_ch (abs s) a b max from) as [l0 k0].
    cbn [fst snd] in *. subst. now splits.
  - (* Replace(String, String) *)
    destruct Ao as [Arm Awm].
    pose proof (replace_s_spec s (arg_src rm) (arg_src wm) max from I F (arg_src_ok wm Awm)) as R. cbn zeta in R.
    rewrite (osrc_len s wm I) in R. destruct (R Nd) as (I' & A' & K').
    destruct (StrModel.replace_s1 M TH PG OV jk true s (arg_src rm) (arg_src wm) max from) as [x k].
    destruct (l0_replace_sub (abs s) _ _ max from) as [l0 k0].
    cbn [fst snd] in *. subst. now splits.
  - (* Unflatten *)
    pose proof (unflatten_spec s bytes I Ao) as U.
    destruct (list_eqb (cstr bytes) bytes); [rewrite U|destruct U as (x & -> & R)]; now split.
  - (* Unflatten through a window that has been read from *)
    set (r0 := run_pre arena win ps) in *. set (rem := win_remaining arena win r0) in *.
    assert (Lr : lenN rem < LIM).
    { unfold rem, win_remaining. rewrite lenN_dropN, lenN_takeN. lia. }
    pose proof (unflatten_spec s rem I Lr) as U. unfold read_cstr_w in *. fold rem.
    destruct (list_eqb (cstr rem) rem); [rewrite U|destruct U as (x & -> & R)]; now split.
  - (* Replace(Hashtable) *)
    pose proof (replace_multi_spec s pairs max I ltac:(lia)) as R.
    destruct (StrModel.replace_multi1 M TH PG OV jk true s pairs max) as [[w|] n];
      destruct (l0_replace_multi (abs s) pairs max) as [l0 k0]; cbn [fst snd] in *;
      destruct R as (R1 & R2 & R3); subst; now splits.
  - (* operator[] write *)
    split; [|now split]. destruct (i <? slen s) eqn:E; [|now split].
    apply N.ltb_lt in E. apply (map_content_spec s (fun x => upd x i ch)); trivial. rewrite lenN_upd; rewrite (lenN_abs s I); lia.
  - (* operator<<(int) *)
    split; [|now split]. apply append_c_spec; trivial. split; [apply nulfree_dec_of_Z|now apply lenN_dec_of_Z].
  - (* operator<<(bool) *)
    split; [|now split]. apply append_c_spec; trivial.
    + destruct b; (split; [repeat constructor; discriminate|reflexivity]).
    + cbn [clit_of]. destruct b; cbn [lenN length N.of_nat Pos.of_succ_nat Pos.succ]; lia.
  - (* IndexOf(const char-ptr) *)
    pose proof (cstr_cregion s c I (fun _ => F) Ao) as R. unfold StrModel.cbytes.
    destruct (StrModel.cregion M s c) as [r0|]; [rewrite R|subst c; cbn [clit_of]]; now splits.
  - (* GetDistanceTo: the early exit does not change the capped distance *)
    rewrite distance_code_fixed. now splits.
  - (* Flatten *)
    rewrite (flatten_spec s I). now splits.
Qed.

Lemma produce_refines s o :
  inv s -> nulfree (abs s) -> op_ok (abs s) o ->
  match produce s o, produce0 (abs s) o with
  | Some r, Some r0 => abs_out r = r0 /\ out_inv r
  | None, None => True
  | _, _ => False
  end.
Proof.
  intros I F (Bl & Ao & Nd).
  assert (R : rep s (abs s)) by now split.
  assert (Os : srep (src_of s) (abs s)) by now apply srep_of.
  assert (Rc : rep (ctor_copy (src_of s)) (abs s)) by now apply copy_rep.
  assert (Oa : forall a, srep (osrc s (arg_src a)) (lit_of (abs s) a)) by (split; [now apply osrc_src_ok|apply osrc_bytes]).
  destruct o; cbn [StrModel.produce produce0 args_ok need] in *; trivial; rewrite ?osrc_bytes.
  - (* OCopy *) now apply out_str.
  - (* OCopyPre *) now apply out_str, copy_pre_rep.
  - (* OSubstring *) now apply out_str, sub_rep.
  - (* Substring(marker) *)
    apply out_str. destruct (l0_last_index_of1 _ _); trivial; now apply sub_rep.
  - (* OSubstringUntil *) now apply out_str, sub_rep.
  - (* OWithInsertS *) apply out_str, with_insert_spec; auto.
  - (* OWithInsertCh *) now apply out_str, with_insert_ch_spec.
  - (* OPadded *) now apply out_str, padded_spec.
  - (* OLower *) apply out_str, case_spec; trivial. apply lenN_map.
  - (* OUpper *) apply out_str, case_spec; trivial. apply lenN_map.
  - (* OMixed *) apply out_str, case_spec; trivial. apply lenN_mixed_aux.
  - (* OTrimmed *) now apply out_str, trimmed_spec.
  - (* WithReplacements(char, char) *)
    apply out_str. destruct Rc as [Ic Ac]. rewrite <- Ac. split; apply (replace_ch_spec _ a b max from Ic).
  - (* WithReplacements(String, String) *)
    destruct Ao as [Arm Awm]. pose proof (rep_len _ _ Rc) as Lc. destruct Rc as [Ic Ac].
    pose proof (replace_s_spec _ (Some (osrc s (arg_src rm))) (Some (osrc s (arg_src wm))) max from Ic) as X.
    cbn zeta in X. cbn [StrModel.osrc] in X. rewrite !osrc_bytes, Ac in X.
    destruct X as (I' & A' & _); trivial; [| |now apply out_str].
    + split; [apply (osrc_src_ok s wm I)|]. rewrite (osrc_len s wm I). auto.
    + rewrite (osrc_len s wm I), Lc. lia.
  - (* OArgS *) apply out_str, arg_spec; auto.
  - (* Arg(int) *)
    apply out_str, arg_spec; trivial; [apply nulfree_dec_of_Z|now apply lenN_dec_of_Z].
  - (* WithSuffix *)
    apply out_str. destruct (ends_with _ _); trivial. pose proof (lit_len (abs s) a Bl Ao).
    eapply rep_eq; [apply (with_insert_spec s _ NOLIMIT _ _ NOLIMIT R (Oa a)); auto; lia|].
    rewrite l0_insert_back, takeN_all; trivial; unfold NOLIMIT, LIM in *; lia.
  - (* WithPrefix *)
    apply out_str. destruct (starts_with _ _); trivial. pose proof (lit_len (abs s) a Bl Ao).
    eapply rep_eq; [apply (with_insert_spec s _ 0 _ _ NOLIMIT R (Oa a)); auto; lia|].
    rewrite l0_insert_front, takeN_all; trivial; unfold NOLIMIT, LIM in *; lia.
  - (* WithoutSuffix(String) *)
    apply out_str. unfold l0_without_suffix. destruct (lit_of (abs s) a) as [|x t]; trivial.
    now apply without_suffix_loop_spec.
  - (* WithoutPrefix(String) *)
    apply out_str. unfold l0_without_prefix. destruct (lit_of (abs s) a) as [|x t]; trivial.
    rewrite (eqb_f (lenN (x :: t)) 0) by (rewrite lenN_cons; lia). cbn [orb].
    destruct (starts_with (abs s) (x :: t)) eqn:Es; cbn [negb]; [now apply without_prefix_loop_spec|].
    cbn [strip_prefix_fuel]. now rewrite Es, andb_false_r.
  - (* OWithoutSuffixCh *) now apply out_str, without_suffix_ch_loop_spec.
  - (* OWithoutPrefixCh *) now apply out_str, without_prefix_ch_spec.
  - (* WithoutNumericSuffix *)
    destruct (without_num_suffix_spec s _ R Bl) as (I' & A').
    destruct (l0_without_num_suffix (abs s)) as [x v]. cbn [fst snd StrSpec.abs_out StrRefine.out_inv] in *. now rewrite A'.
  - (* OPlusS *) apply out_str, plus_spec; auto.
  - (* WithSuffix(char) *)
    apply out_str. rewrite (lenN_abs s I). destruct ((0 <? slen s) && _); trivial.
    eapply rep_eq; [apply (with_insert_ch_spec s _ NOLIMIT ch 1 R); lia|].
    destruct (ch =? 0); [reflexivity|]. apply l0_insert_back. unfold NOLIMIT, LIM in *. lia.
  - (* WithPrefix(char) *)
    apply out_str. destruct (nthN 0 (abs s) =? ch); trivial.
    eapply rep_eq; [apply (with_insert_ch_spec s _ 0 ch 1 R); lia|].
    destruct (ch =? 0); [reflexivity|]. apply l0_insert_front.
  - (* WithoutSuffixIgnoreCase(String) *)
    apply out_str. unfold l0_without_suffix_nc. destruct (lit_of (abs s) a) as [|x t]; trivial.
    rewrite (eqb_f (lenN (x :: t)) 0) by (rewrite lenN_cons; lia). cbn [orb].
    destruct (ends_with_nocase (abs s) (x :: t)) eqn:Es; cbn [negb]; [now apply without_suffix_nc_loop_spec|].
    cbn [strip_suffix_nc_fuel]. now rewrite Es, andb_false_r.
  - (* WithoutPrefixIgnoreCase(String) *)
    apply out_str. unfold l0_without_prefix_nc. destruct (lit_of (abs s) a) as [|x t]; trivial.
    rewrite (eqb_f (lenN (x :: t)) 0) by (rewrite lenN_cons; lia). cbn [orb].
    destruct (starts_with_nocase (abs s) (x :: t)) eqn:Es; cbn [negb]; [now apply without_prefix_nc_loop_spec|].
    cbn [strip_prefix_nc_fuel]. now rewrite Es, andb_false_r.
  - (* WithoutSuffixIgnoreCase(char) *)
    apply out_str. destruct (ends_with_nocase (abs s) [ch]) eqn:Es; cbn [negb]; [now apply without_suffix_nc_loop_spec|].
    cbn [strip_suffix_nc_fuel]. now rewrite Es, andb_false_r.
  - (* OWithoutPrefixChI *) now apply out_str, without_prefix_ch_nc_spec.
  - (* WithInsertedWord *) destruct Ao as [Aa As]. apply out_str, with_word_spec; auto.
  - (* OIndented *) now apply out_str, indented_spec.
  - (* Arg(double, min, max), from the sprintf output on *)
    destruct (float_text_facts buf minDigits Ao) as (Ft & Lt).
    destruct (float_text_spec buf minDigits Ao) as (If & Af); [lia|]. rewrite Af.
    apply out_str, arg_spec; trivial; [unfold LIM in *; lia|nia].
  - (* WithReplacements(Hashtable) *)
    pose proof (replace_multi_spec s pairs max I ltac:(lia)) as X. apply out_str.
    destruct (StrModel.replace_multi1 M TH PG OV jk true s pairs max) as [[w|] n]; destruct X as (X1 & X2 & X3).
    + apply copy_rep; [apply srep_of; now split|]. lia.
    + now rewrite X3.
  - (* String + char *)
    apply out_str, append_ch_rep; [|lia]. eapply set_from_all_rep; [apply prealloc_rep, empty_rep|trivial..].
  - (* char + String *)
    cbn [cstr]. rewrite (eqb_f ch 0) by trivial.
    apply out_str, append_s_rep; trivial; [|cbn [lenN length N.of_nat Pos.of_succ_nat]; lia].
    apply (set_cstr_rep _ [] [ch] 1); [apply prealloc_rep, empty_rep|auto with nulfree|reflexivity].
  - (* const char-ptr + String *)
    destruct Ao as [Fl Bl']. apply out_str, append_s_rep; trivial; [|lia].
    eapply rep_eq; [apply (set_cstr_rep _ [] lit NOLIMIT); trivial; apply prealloc_rep, empty_rep|].
    apply takeN_all. unfold NOLIMIT, LIM in *. lia.
  - (* String - String *)
    apply out_str. destruct Rc as [Ic Ac]. rewrite <- (osrc_bytes s a), <- Ac. apply (minus_s_spec _ (Some (osrc s (arg_src a))) Ic).
    split; [apply (osrc_src_ok s a I)|]. rewrite (osrc_len s a I). auto.
  - (* OMinusPCh *) apply out_str. destruct Rc as [Ic Ac]. rewrite <- Ac. now apply minus_ch_spec.
  - (* OEscaped *) now apply out_str, escaped_spec.
Qed.

Lemma abs_out_lift r : match r with R0Str _ | R0StrNat _ _ => False | _ => True end -> abs_out (lift_out r) = r.
Proof. destruct r; cbn; intros H; try reflexivity; contradiction. Qed.
Lemma query_plain l o r : query l l o = Some r -> match r with R0Str _ | R0StrNat _ _ => False | _ => True end.
Proof. destruct o; cbn [query]; intros H; inversion H; exact Logic.I. Qed.

End Cases.

Set Default Proof Using "All".

Section Refine.
Variables (M TH PG OV jk : N).
Hypothesis M_pos : 1 <= M.
Hypothesis TH_ge : 2 <= TH.
Hypothesis PG_pos : 0 < PG.
Hypothesis PG_le : PG <= 1048576.
Hypothesis OV_lt : OV < PG.
Hypothesis M_le : M <= 1048576.
(* the lemmas of StrCore/StrOps/StrProd take the six facts as one instance *)
Local Instance params : str_params M TH PG OV jk := Build_str_params _ _ _ _ _ M_pos TH_ge PG_pos PG_le OV_lt M_le.

Local Notation abs := (abs M).
Local Notation inv := (inv M).
Local Notation step1 := (step1 M TH PG OV jk true).
Local Notation mutate := (mutate M TH PG OV jk true).
Local Notation produce := (produce M TH PG OV jk true).
Local Notation abs_out := (abs_out M).
Local Notation out_inv := (out_inv M).

Theorem step_refines s o :
  inv s -> nulfree (abs s) -> op_ok (abs s) o ->
  inv (fst (step1 s o)) /\ abs (fst (step1 s o)) = fst (step0 (abs s) o) /\
  abs_out (snd (step1 s o)) = snd (step0 (abs s) o) /\ out_inv (snd (step1 s o)).
Proof.
  intros I F Ok.
  assert (Plain : forall o', op_ok (abs s) o' ->
    let r1 := match mutate s o' with
              | Some r => r
              | None => match produce s o' with
                        | Some r => (s, r)
                        | None => match query (abs s) (abs s) o' with Some r => (s, lift_out r) | None => (s, R1None) end
                        end
              end in
    let r0 := match mutate0 (abs s) o' with
              | Some r => r
              | None => match produce0 (abs s) o' with
                        | Some r => (abs s, r)
                        | None => match query (abs s) (abs s) o' with Some r => (abs s, r) | None => (abs s, R0None) end
                        end
              end in
    inv (fst r1) /\ abs (fst r1) = fst r0 /\ abs_out (snd r1) = snd r0 /\ out_inv (snd r1)).
  { intros o' Ok' r1 r0. unfold r1, r0.
    pose proof (mutate_refines s o' I F Ok') as Rm. pose proof (produce_refines s o' I F Ok') as Rp.
    destruct (mutate s o') as [[s' r]|], (mutate0 (abs s) o') as [[l' q]|]; try contradiction.
    { destruct Rm as ((I' & A') & O' & V'). now splits. }
    destruct (produce s o') as [r|], (produce0 (abs s) o') as [q|]; try contradiction.
    { destruct Rp as (O' & V'). now splits. }
    destruct (query (abs s) (abs s) o') as [q|] eqn:Eq; cbn [fst snd]; [|now splits].
    pose proof (query_plain _ _ _ Eq) as Pq. splits; trivial; [now apply abs_out_lift|now destruct q]. }
  destruct o; try exact (Plain _ Ok).
  (* s = <producer> *)
  cbn [StrModel.step1 step0]. destruct Ok as (Bl & Ao & Nd).
  pose proof (produce_refines s o I F (conj Bl (conj Ao Nd))) as Rp.
  destruct (produce s o) as [r|], (produce0 (abs s) o) as [q|]; try contradiction; [|now splits].
  destruct Rp as (O' & V'). destruct r; cbn [StrSpec.abs_out] in O'; subst q; cbn [fst snd StrRefine.out_inv] in *; now splits.
Qed.

End Refine.
