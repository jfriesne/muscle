(* C09 -- traversal theory, list level: the entries an iterator still has to visit ("pending") and
   how removing its current entry (with the cookie fix-up) and inserting new entries affect them. *)
From Coq Require Import List Arith ZArith NArith PArith Bool Lia FMapPositive Permutation.
From Muscle Require Import Cont.HtModel Cont.HtLemmas.
Import ListNotations.

Fixpoint after (l : list positive) (c : positive) : list positive :=
  match l with [] => [] | x :: r => if Pos.eqb x c then r else after r c end.
Fixpoint before (l : list positive) (c : positive) : list positive :=
  match l with [] => [] | x :: r => if Pos.eqb x c then [] else x :: before r c end.

Definition rest_of (bw : bool) (l : list positive) (c : positive) : list positive :=
  if bw then before l c else after l c.

(* what the iterator will still show: its cookie entry if it currently shows a scratch copy, and
   everything beyond the cookie in its direction *)
Definition pend (l : list positive) (it : iter) : list positive :=
  match icookie it with
  | None => []
  | Some c => (match iscr it with Some _ => [c] | None => [] end) ++ rest_of (ibw it) l c
  end.

Lemma after_mid : forall l1 c l2, ~ In c l1 -> after (l1 ++ c :: l2) c = l2.
Proof.
  induction l1 as [|x l1 IH]; intros c l2 Hn; cbn.
  - rewrite Pos.eqb_refl. reflexivity.
  - destruct (Pos.eqb x c) eqn:E; [apply Pos.eqb_eq in E; subst; exfalso; apply Hn; left; reflexivity|].
    apply IH. intro H. apply Hn. right; exact H.
Qed.

Lemma before_mid : forall l1 c l2, ~ In c l1 -> before (l1 ++ c :: l2) c = l1.
Proof.
  induction l1 as [|x l1 IH]; intros c l2 Hn; cbn.
  - rewrite Pos.eqb_refl. reflexivity.
  - destruct (Pos.eqb x c) eqn:E; [apply Pos.eqb_eq in E; subst; exfalso; apply Hn; left; reflexivity|].
    f_equal. apply IH. intro H. apply Hn. right; exact H.
Qed.

Lemma after_incl : forall l c n, In n (after l c) -> In n l.
Proof.
  induction l as [|x l IH]; intros c n H; [destruct H|]. cbn in H. destruct (Pos.eqb x c); [right; exact H|right; eapply IH; exact H].
Qed.

Lemma before_incl : forall l c n, In n (before l c) -> In n l.
Proof.
  induction l as [|x l IH]; intros c n H; [destruct H|]. cbn in H. destruct (Pos.eqb x c); [destruct H|].
  destruct H as [<-|H]; [left; reflexivity|right; eapply IH; exact H].
Qed.

Lemma rest_of_incl : forall bw l c n, In n (rest_of bw l c) -> In n l.
Proof. intros [] l c n H; [eapply before_incl|eapply after_incl]; exact H. Qed.

Lemma pend_mono : forall l l' it (P : positive -> Prop),
  (forall c, icookie it = Some c -> forall n, In n (rest_of (ibw it) l c) -> In n (rest_of (ibw it) l' c) \/ P n) ->
  forall n, In n (pend l it) -> In n (pend l' it) \/ P n.
Proof.
  intros l l' it P H n Hn. unfold pend in *. destruct (icookie it) as [c|]; [|destruct Hn].
  apply in_app_or in Hn. destruct Hn as [Hn|Hn]; [left; apply in_or_app; left; exact Hn|].
  destruct (H c eq_refl n Hn) as [H1|H1]; [left; apply in_or_app; right; exact H1|right; exact H1].
Qed.

Lemma notin_app_l : forall (a b : list positive) x, ~ In x (a ++ b) -> ~ In x a.
Proof. intros a b x H Hin. apply H. apply in_or_app. left; exact Hin. Qed.
Lemma notin_app_r : forall (a b : list positive) x, ~ In x (a ++ b) -> ~ In x b.
Proof. intros a b x H Hin. apply H. apply in_or_app. right; exact Hin. Qed.

Lemma filter_id_in : forall (p : positive -> bool) l, (forall x, In x l -> p x = true) -> filter p l = l.
Proof.
  intros p. induction l as [|x l IH]; intros H; [reflexivity|]. cbn. rewrite (H x (or_introl eq_refl)). f_equal.
  apply IH. intros y Hy. apply H. right; exact Hy.
Qed.

Lemma after_filter : forall (p : positive -> bool) c l, p c = true -> after (filter p l) c = filter p (after l c).
Proof.
  intros p c. induction l as [|x r IH]; intros Hc; [reflexivity|]. cbn [filter after].
  destruct (p x) eqn:Px.
  - cbn [after]. destruct (Pos.eqb x c); [reflexivity|apply IH; exact Hc].
  - destruct (Pos.eqb x c) eqn:E; [apply Pos.eqb_eq in E; congruence|apply IH; exact Hc].
Qed.

Lemma before_filter : forall (p : positive -> bool) c l, p c = true -> before (filter p l) c = filter p (before l c).
Proof.
  intros p c. induction l as [|x r IH]; intros Hc; [reflexivity|]. cbn [filter before].
  destruct (p x) eqn:Px.
  - cbn [before]. destruct (Pos.eqb x c); [reflexivity|]. cbn [filter]. rewrite Px. f_equal. apply IH; exact Hc.
  - destruct (Pos.eqb x c) eqn:E; [apply Pos.eqb_eq in E; congruence|]. cbn [filter]. rewrite Px. apply IH; exact Hc.
Qed.

Lemma rest_of_filter : forall bw (p : positive -> bool) c l, p c = true -> rest_of bw (filter p l) c = filter p (rest_of bw l c).
Proof. intros [] p c l H; unfold rest_of; [apply before_filter|apply after_filter]; exact H. Qed.

(* for a cursor c different from the inserted entry e: what lies beyond c gains at most e
   (the shorter list is the longer one filtered by "is not e") *)
Lemma rest_insert : forall bw m1 m2 e c, NoDup (m1 ++ e :: m2) -> In c (m1 ++ m2) ->
  (forall n, In n (rest_of bw (m1 ++ m2) c) -> In n (rest_of bw (m1 ++ e :: m2) c)) /\
  (forall n, In n (rest_of bw (m1 ++ e :: m2) c) -> In n (rest_of bw (m1 ++ m2) c) \/ n = e).
Proof.
  intros bw m1 m2 e c Hnd Hc. destruct (nodup_split_notin _ _ _ Hnd) as [H1 H2].
  set (p := fun x => negb (Pos.eqb x e)).
  assert (Pt : forall x, x <> e -> p x = true) by (intros x Hx; unfold p; apply negb_true_iff, Pos.eqb_neq; exact Hx).
  assert (E : filter p (m1 ++ e :: m2) = m1 ++ m2).
  { rewrite filter_app. cbn [filter]. unfold p at 2. rewrite Pos.eqb_refl. cbn [negb].
    rewrite !filter_id_in; [reflexivity|intros x Hx; apply Pt; intro; subst; contradiction..]. }
  assert (Hce : c <> e) by (intro; subst; apply in_app_or in Hc; tauto).
  rewrite <- E, (rest_of_filter bw p c _ (Pt c Hce)). split; intros n Hn.
  - apply filter_In in Hn. apply Hn.
  - destruct (Pos.eq_dec n e) as [->|Hne]; [right; reflexivity|left; apply filter_In; auto].
Qed.

(* the cursor moved off the removed entry e = l1 ++ e :: l2 in its direction *)
Definition moved_cookie (bw : bool) (l1 l2 : list positive) : option positive :=
  if bw then last_of l1 else head_opt l2.

Lemma pend_after_fixup : forall l1 l2 e it, NoDup (l1 ++ e :: l2) ->
  icookie it = moved_cookie (ibw it) l1 l2 -> iscr it <> None ->
  forall n, In n (pend (l1 ++ l2) it) <-> In n (rest_of (ibw it) (l1 ++ e :: l2) e).
Proof.
  intros l1 l2 e it Hnd Ek Hs n. destruct (nodup_split_notin _ _ _ Hnd) as [H1 H2].
  assert (Hnd0 : NoDup (l1 ++ l2)) by (eapply nodup_remove_mid; exact Hnd).
  unfold pend. rewrite Ek. destruct (iscr it); [|contradiction]. unfold moved_cookie, rest_of. destruct (ibw it).
  - rewrite before_mid by exact H1. destruct (last_of l1) as [x|] eqn:EL.
    + destruct (last_of_split _ _ _ EL) as (a & ->).
      assert (Hx : ~ In x a) by (rewrite <- app_assoc in Hnd0; cbn [app] in Hnd0; apply (nodup_split_notin _ _ _ Hnd0)).
      rewrite <- app_assoc. cbn [app]. rewrite before_mid by exact Hx. split; intros Hn.
      * destruct Hn as [<-|Hn]; apply in_or_app; [right; left; reflexivity|left; exact Hn].
      * apply in_app_or in Hn. destruct Hn as [Hn|[<-|[]]]; [right; exact Hn|left; reflexivity].
    + apply last_of_none in EL. subst l1. split; intros [].
  - rewrite after_mid by exact H1. destruct l2 as [|x l2']; cbn [head_opt]; [split; intros []|].
    assert (Hx : ~ In x l1) by (apply (nodup_split_notin _ _ _ Hnd0)).
    rewrite after_mid by exact Hx. split; intros Hn; exact Hn.
Qed.
