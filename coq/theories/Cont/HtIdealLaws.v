(* C09 -- the ideal level (L0): the two order-dependent ideal operations of the auto-sorting classes only
   permute the pairs, lookups depend on the set of pairs only, and Get after Put / after Remove are the
   finite-map laws on association lists. *)
From Coq Require Import List Arith ZArith NArith PArith Bool Lia Permutation.
From Muscle Require Import Cont.HtModel Cont.HtStep Cont.HtIdeal Cont.HtLemmas Cont.HtOrdered Cont.HtSorted.
Import ListNotations.

Lemma a_get_perm : forall (l l' : amap) k, NoDup (map fst l) -> Permutation l l' -> a_get l' k = a_get l k.
Proof.
  intros l l' k Hnd P. revert Hnd. induction P as [|[k1 v1] l l' P IH|[k1 v1] [k2 v2] l|l1 l2 l3 P1 IH1 P2 IH2]; intros Hnd.
  - reflexivity.
  - cbn [a_get]. cbn [map] in Hnd. inversion Hnd; subst. destruct (Z.eqb k1 k); [reflexivity|apply IH; assumption].
  - cbn [a_get]. cbn [map fst] in Hnd. inversion Hnd as [|? ? H1 H2]; subst.
    destruct (Z.eqb k1 k) eqn:E1; destruct (Z.eqb k2 k) eqn:E2; try reflexivity.
    apply Z.eqb_eq in E1. apply Z.eqb_eq in E2. subst. exfalso. apply H1. left; reflexivity.
  - rewrite IH2; [apply IH1; exact Hnd|]. eapply Permutation_NoDup; [apply Permutation_map; exact P1|exact Hnd].
Qed.

Lemma insert_ordered_perm : forall var l kv, Permutation (kv :: l) (l0_insert_ordered var l kv).
Proof.
  intros var l kv. unfold l0_insert_ordered. destruct l as [|x r]; [apply Permutation_refl|].
  destruct (is_lt (cmpv var kv x)); [apply Permutation_refl|].
  set (f := fun y => is_lt (cmpv var kv y)). fold (suf_of f (x :: r)). rewrite firstn_pre.
  rewrite <- (pre_suf _ f (x :: r)) at 1. apply Permutation_middle.
Qed.

Lemma insert_new_perm : forall var l srt kv, Permutation (kv :: l) (l0_insert_new var l srt kv).
Proof.
  intros var l srt kv. unfold l0_insert_new.
  assert (A : Permutation (kv :: l) (l ++ [kv])) by (apply Permutation_cons_append).
  destruct var; [exact A| |]; (destruct srt; [apply insert_ordered_perm|exact A]).
Qed.

Lemma reposition_ordered_perm : forall var l k, Permutation l (l0_reposition_ordered var l k).
Proof.
  intros var l k. destruct (a_get l k) as [v|] eqn:Eg.
  2:{ unfold l0_reposition_ordered. rewrite Eg. destruct (a_index l k 0); apply Permutation_refl. }
  destruct (a_set_split l k v v Eg) as (pre & post & -> & Hn & _).
  rewrite (l0_reposition_ordered_split var pre post k v Hn). cbv zeta.
  set (kv := (k, v)). set (lt := fun y => is_lt (cmpv var kv y)). set (gt := fun y => is_gt (cmpv var kv y)).
  destruct (match last_opt pre with Some b => _ | None => _ end).
  - destruct (match head_opt pre with Some x => _ | None => _ end); [apply Permutation_sym, Permutation_middle|].
    rewrite <- (pre_suf _ lt pre) at 1. rewrite <- app_assoc. apply Permutation_app_head.
    apply Permutation_sym, Permutation_middle.
  - destruct (match head_opt post with Some y => _ | None => _ end); [|apply Permutation_refl].
    destruct (match last_opt post with Some z => _ | None => _ end); apply Permutation_app_head; [apply Permutation_cons_append|].
    rewrite <- (take_drop_while _ gt post) at 1. apply Permutation_middle.
Qed.

Lemma reposition_perm : forall var l k, Permutation l (l0_reposition var l k).
Proof. intros var l k. unfold l0_reposition. destruct var; [apply Permutation_refl| |]; apply reposition_ordered_perm. Qed.

(* ------------------------------------------------------------------ Put / Get / Remove are the map laws *)

Lemma l0_ensure_pairs : forall dcap x req sh, pairs (fst (l0_ensure dcap x req sh)) = pairs x.
Proof.
  intros dcap x req sh. unfold l0_ensure. destruct (N.eqb _ (acap x)); [reflexivity|].
  destruct (N.eqb (N.max (N.of_nat (length (pairs x))) _) 0) eqn:E; [|destruct (N.eqb _ 4294967295); reflexivity].
  apply N.eqb_eq in E. cbn [fst pairs]. destruct (pairs x); [reflexivity|cbn [length] in E; lia].
Qed.

Lemma a_get_a_set_same : forall (l : amap) k v, a_get l k <> None -> a_get (a_set l k v) k = Some v.
Proof.
  induction l as [|[k' v'] l IH]; intros k v H; [exfalso; apply H; reflexivity|]. cbn [a_get a_set] in *.
  destruct (Z.eqb k' k) eqn:E; cbn [a_get]; rewrite E; [reflexivity|apply IH; exact H].
Qed.

Lemma a_get_a_set_other : forall (l : amap) k v k', k' <> k -> a_get (a_set l k v) k' = a_get l k'.
Proof.
  induction l as [|[k1 v1] l IH]; intros k v k' H; [reflexivity|]. cbn [a_get a_set].
  destruct (Z.eqb k1 k) eqn:E; cbn [a_get].
  - apply Z.eqb_eq in E. subst k1. assert (E2 : Z.eqb k k' = false) by (apply Z.eqb_neq; congruence). rewrite E2. reflexivity.
  - destruct (Z.eqb k1 k'); [reflexivity|apply IH; exact H].
Qed.

Lemma keys_a_set : forall (l : amap) k v, map fst (a_set l k v) = map fst l.
Proof.
  induction l as [|[k1 v1] l IH]; intros k v; [reflexivity|]. cbn [a_set]. destruct (Z.eqb k1 k); cbn [map fst]; [reflexivity|f_equal; apply IH].
Qed.

Lemma a_get_none_notin : forall (l : amap) k, a_get l k = None -> ~ In k (map fst l).
Proof.
  induction l as [|[k1 v1] l IH]; intros k H Hin; [destruct Hin|]. cbn [a_get map fst] in *.
  destruct (Z.eqb k1 k) eqn:E; [discriminate|]. apply Z.eqb_neq in E. destruct Hin as [Hin|Hin]; [congruence|apply (IH k H Hin)].
Qed.

Lemma l0_put_perm : forall var dcap x k v,
  Permutation (match a_get (pairs x) k with Some _ => a_set (pairs x) k v | None => (k, v) :: pairs x end)
              (pairs (fst (l0_put var dcap x k v))).
Proof.
  intros var dcap x0 k v. unfold l0_put.
  set (x := if N.eqb (acap x0) 0 then mkT0 (pairs x0) dcap (aasort x0) else x0).
  assert (Ep : pairs x = pairs x0) by (unfold x; destruct (N.eqb (acap x0) 0); reflexivity).
  rewrite <- Ep. destruct (a_get (pairs x) k) as [old|].
  - cbn [fst pairs with_pairs]. apply reposition_perm.
  - cbn [fst pairs with_pairs].
    set (x1 := if N.eqb (N.of_nat (length (pairs x))) (acap x) then fst (l0_ensure dcap x (acap x * 2) false) else x).
    assert (E1 : pairs x1 = pairs x) by (unfold x1; destruct (N.eqb _ (acap x)); [apply l0_ensure_pairs|reflexivity]).
    rewrite <- E1. apply insert_new_perm.
Qed.

Theorem l0_put_get_same : forall var dcap x k v, NoDup (map fst (pairs x)) ->
  a_get (pairs (fst (l0_put var dcap x k v))) k = Some v.
Proof.
  intros var dcap x k v Hnd. pose proof (l0_put_perm var dcap x k v) as P.
  destruct (a_get (pairs x) k) as [old|] eqn:Eg.
  - rewrite (a_get_perm _ _ k ltac:(rewrite keys_a_set; exact Hnd) P). apply a_get_a_set_same. rewrite Eg. discriminate.
  - assert (Hnd' : NoDup (map fst ((k, v) :: pairs x))) by (cbn [map fst]; constructor; [apply a_get_none_notin; exact Eg|exact Hnd]).
    rewrite (a_get_perm _ _ k Hnd' P). cbn [a_get]. rewrite Z.eqb_refl. reflexivity.
Qed.

Theorem l0_put_get_other : forall var dcap x k v k', NoDup (map fst (pairs x)) -> k' <> k ->
  a_get (pairs (fst (l0_put var dcap x k v))) k' = a_get (pairs x) k'.
Proof.
  intros var dcap x k v k' Hnd Hk. pose proof (l0_put_perm var dcap x k v) as P.
  destruct (a_get (pairs x) k) as [old|] eqn:Eg.
  - rewrite (a_get_perm _ _ k' ltac:(rewrite keys_a_set; exact Hnd) P). apply a_get_a_set_other. exact Hk.
  - assert (Hnd' : NoDup (map fst ((k, v) :: pairs x))) by (cbn [map fst]; constructor; [apply a_get_none_notin; exact Eg|exact Hnd]).
    rewrite (a_get_perm _ _ k' Hnd' P). cbn [a_get]. assert (E : Z.eqb k k' = false) by (apply Z.eqb_neq; congruence). rewrite E. reflexivity.
Qed.

Theorem a_remove_get_same : forall (l : amap) k, NoDup (map fst l) -> a_get (a_remove l k) k = None.
Proof.
  induction l as [|[k1 v1] l IH]; intros k Hnd; [reflexivity|]. cbn [a_remove map fst] in *. inversion Hnd as [|? ? Hk Hnd']; subst.
  destruct (Z.eqb k1 k) eqn:E.
  - apply Z.eqb_eq in E. subst k1. destruct (a_get l k) eqn:Eg; [|reflexivity]. exfalso. apply Hk.
    clear - Eg. induction l as [|[k2 v2] l IHl]; [discriminate|]. cbn [a_get map fst] in *. destruct (Z.eqb k2 k) eqn:E2; [apply Z.eqb_eq in E2; left; exact E2|right; apply IHl; exact Eg].
  - cbn [a_get]. rewrite E. apply IH. exact Hnd'.
Qed.

Theorem a_remove_get_other : forall (l : amap) k k', k' <> k -> a_get (a_remove l k) k' = a_get l k'.
Proof.
  induction l as [|[k1 v1] l IH]; intros k k' H; [reflexivity|]. cbn [a_remove a_get].
  destruct (Z.eqb k1 k) eqn:E.
  - apply Z.eqb_eq in E. subst k1. assert (E2 : Z.eqb k k' = false) by (apply Z.eqb_neq; congruence). rewrite E2. reflexivity.
  - cbn [a_get]. destruct (Z.eqb k1 k'); [reflexivity|apply IH; exact H].
Qed.
