(* C09 -- the auto-sorting classes keep their tables sorted: list-level facts about the ideal
   operations (L0); HtSortedThm.v carries them to the code-shaped model through the refinement theorem. *)
From Coq Require Import List Arith ZArith NArith PArith Bool Lia FMapPositive Permutation.
From Muscle Require Import Cont.HtModel Cont.HtStep Cont.HtIdeal Cont.HtLemmas Cont.HtOrdered.
Import ListNotations.

Section S.
Variable var : variant.

(* the component the class sorts by *)
Definition ord (kv : Z * Z) : Z := match var with VVals => snd kv | _ => fst kv end.

Lemma cmp_var_ord : forall a b, cmp_var var a b = Z.compare (ord a) (ord b).
Proof. intros. unfold cmp_var, ord, cmp_val, cmp_key. destruct var; reflexivity. Qed.

Lemma is_lt_ord : forall a b, is_lt (cmpv var a b) = true <-> (ord a < ord b)%Z.
Proof. intros. unfold cmpv. rewrite cmp_var_ord. unfold is_lt. destruct (Z.compare_spec (ord a) (ord b)); split; intros; try lia; try discriminate; reflexivity. Qed.
Lemma is_lt_ord_false : forall a b, is_lt (cmpv var a b) = false <-> (ord b <= ord a)%Z.
Proof. intros. unfold cmpv. rewrite cmp_var_ord. unfold is_lt. destruct (Z.compare_spec (ord a) (ord b)); split; intros; try lia; try discriminate; reflexivity. Qed.
Lemma is_gt_ord : forall a b, is_gt (cmpv var a b) = true <-> (ord b < ord a)%Z.
Proof. intros. unfold cmpv. rewrite cmp_var_ord. unfold is_gt. destruct (Z.compare_spec (ord a) (ord b)); split; intros; try lia; try discriminate; reflexivity. Qed.
Lemma is_gt_ord_false : forall a b, is_gt (cmpv var a b) = false <-> (ord a <= ord b)%Z.
Proof. intros. unfold cmpv. rewrite cmp_var_ord. unfold is_gt. destruct (Z.compare_spec (ord a) (ord b)); split; intros; try lia; try discriminate; reflexivity. Qed.

Fixpoint sorted (l : amap) : Prop :=
  match l with
  | [] => True
  | x :: r => (forall y, In y r -> (ord x <= ord y)%Z) /\ sorted r
  end.

Lemma sorted_app : forall a b, sorted (a ++ b) <-> sorted a /\ sorted b /\ (forall x y, In x a -> In y b -> (ord x <= ord y)%Z).
Proof.
  induction a as [|x a IH]; intros b; cbn [app sorted].
  - split; [intros H; split; [exact I|split; [exact H|intros x y []]]|intros (_ & H & _); exact H].
  - rewrite IH. split.
    + intros (Hx & Ha & Hb & Hab). split; [split; [intros y Hy; apply Hx; apply in_or_app; left; exact Hy|exact Ha]|split; [exact Hb|]].
      intros x0 y [<-|Hx0] Hy; [apply Hx; apply in_or_app; right; exact Hy|apply Hab; assumption].
    + intros ((Hx & Ha) & Hb & Hab). split; [|split; [exact Ha|split; [exact Hb|intros x0 y Hx0 Hy; apply Hab; [right; exact Hx0|exact Hy]]]].
      intros y Hy. apply in_app_or in Hy. destruct Hy as [Hy|Hy]; [apply Hx; exact Hy|apply Hab; [left; reflexivity|exact Hy]].
Qed.

Lemma sorted_cons : forall x r, sorted (x :: r) <-> (forall y, In y r -> (ord x <= ord y)%Z) /\ sorted r.
Proof. reflexivity. Qed.

Lemma sorted_filter : forall f l, sorted l -> sorted (filter f l).
Proof.
  induction l as [|x l IH]; intros H; [exact I|]. cbn [filter]. destruct H as [Hx Hl]. destruct (f x); [|apply IH; exact Hl].
  split; [intros y Hy; apply Hx; apply filter_In in Hy; apply Hy|apply IH; exact Hl].
Qed.

Lemma sorted_a_remove : forall l k, sorted l -> sorted (a_remove l k).
Proof.
  induction l as [|[k' v'] l IH]; intros k H; [exact I|]. cbn [a_remove]. destruct H as [Hx Hl]. destruct (Z.eqb k' k); [exact Hl|].
  split; [|apply IH; exact Hl]. intros y Hy. apply Hx.
  clear - Hy. revert Hy. induction l as [|[k2 v2] l IHl]; intros Hy; [destruct Hy|]. cbn [a_remove] in Hy.
  destruct (Z.eqb k2 k); [right; exact Hy|destruct Hy as [<-|Hy]; [left; reflexivity|right; apply IHl; exact Hy]].
Qed.

Lemma ins_sorted_in : forall cmp x l z, In z (ins_sorted cmp x l) -> In z (x :: l).
Proof.
  intros cmp x. induction l as [|w r IH]; intros z Hz; [exact Hz|]. cbn [ins_sorted] in Hz.
  destruct (cmp x w); try exact Hz; (destruct Hz as [<-|Hz]; [right; left; reflexivity|]);
    (destruct (IH z Hz) as [<-|H]; [left; reflexivity|right; right; exact H]).
Qed.

Lemma ins_sorted_sorted : forall x l, sorted l -> sorted (ins_sorted (cmpv var) x l).
Proof.
  intros x. induction l as [|y r IH]; intros H; [split; [intros y []|exact I]|].
  cbn [ins_sorted]. destruct H as [Hy Hr]. unfold cmpv at 1. rewrite cmp_var_ord.
  assert (Later : (ord y <= ord x)%Z -> sorted (y :: ins_sorted (cmpv var) x r)).
  { intros E. split; [|apply IH; exact Hr]. intros z Hz. apply ins_sorted_in in Hz. destruct Hz as [<-|Hin]; [exact E|apply Hy; exact Hin]. }
  destruct (Z.compare_spec (ord x) (ord y)) as [E|E|E]; [apply Later; lia| |apply Later; lia].
  split; [|split; [exact Hy|exact Hr]]. intros z [<-|Hz]; [lia|]. specialize (Hy z Hz). lia.
Qed.

Lemma stable_sort_sorted : forall l, sorted (stable_sort (cmpv var) l).
Proof.
  intros l. unfold stable_sort.
  assert (G : forall l acc, sorted acc -> sorted (fold_left (fun acc x => ins_sorted (cmpv var) x acc) l acc)).
  { induction l0 as [|x l0 IH]; intros acc H; [exact H|]. cbn [fold_left]. apply IH. apply ins_sorted_sorted. exact H. }
  apply G. exact I.
Qed.

(* ------------------------------------------------------------------ InsertIterationEntryInOrder *)

Lemma sorted_le_last : forall l z p, sorted l -> head_opt (rev l) = Some z -> In p l -> (ord p <= ord z)%Z.
Proof.
  intros l z p Hs Hz Hp. fold (last_of l) in Hz. destruct (last_of_split _ _ _ Hz) as (a & ->).
  apply sorted_app in Hs. destruct Hs as (_ & _ & Hab). apply in_app_or in Hp. destruct Hp as [Hp|[<-|[]]]; [|lia].
  apply Hab; [exact Hp|left; reflexivity].
Qed.

Lemma pre_le_of_last : forall (f : Z * Z -> bool) kv l, sorted l ->
  (forall y, f y = false -> (ord y <= ord kv)%Z) ->
  forall p, In p (pre_of f l) -> (ord p <= ord kv)%Z.
Proof.
  intros f kv l Hs Hf p Hp.
  assert (Hsp : sorted (pre_of f l)).
  { rewrite <- (pre_suf _ f l) in Hs. apply sorted_app in Hs. apply Hs. }
  destruct (head_opt (rev (pre_of f l))) as [z|] eqn:Ez.
  - pose proof (sorted_le_last _ z p Hsp Ez Hp) as H1. rewrite pre_of_last in Ez. apply drop_while_head in Ez.
    specialize (Hf z Ez). lia.
  - fold (last_of (pre_of f l)) in Ez. apply last_of_none in Ez. rewrite Ez in Hp. destruct Hp.
Qed.

Lemma insert_ordered_sorted : forall l kv, sorted l -> sorted (l0_insert_ordered var l kv).
Proof.
  intros l kv Hs. unfold l0_insert_ordered. destruct l as [|x r]; [split; [intros y []|exact I]|].
  destruct (is_lt (cmpv var kv x)) eqn:Ex.
  - apply is_lt_ord in Ex. split; [|exact Hs]. intros y [<-|Hy]; [lia|]. destruct Hs as [Hx _]. specialize (Hx y Hy). lia.
  - set (f := fun y => is_lt (cmpv var kv y)). fold (suf_of f (x :: r)). rewrite firstn_pre.
    pose proof (pre_suf _ f (x :: r)) as E. rewrite <- E in Hs. apply sorted_app in Hs. destruct Hs as (Hp & Hsf & Hps).
    apply sorted_app. split; [exact Hp|split; [split; [|exact Hsf]|]].
    + intros y Hy. unfold suf_of in Hy. apply in_rev in Hy. apply take_while_all in Hy. apply is_lt_ord in Hy. lia.
    + intros p y Hpin [<-|Hy].
      * apply (pre_le_of_last f kv (x :: r)); [rewrite <- E; apply sorted_app; auto| |exact Hpin].
        intros z Hz. apply is_lt_ord_false in Hz. exact Hz.
      * apply Hps; assumption.
Qed.

Lemma insert_new_sorted : forall l kv, sorted l -> sorted (l0_insert_new var l true kv) \/ var = VPlain.
Proof.
  intros l kv Hs. unfold l0_insert_new. destruct var eqn:E; [right; reflexivity| |]; left; rewrite <- E; apply insert_ordered_sorted; exact Hs.
Qed.

(* ------------------------------------------------------------------ MoveIterationEntryToCorrectPosition *)

Lemma sorted_insert_mid : forall a b kv, sorted (a ++ b) ->
  (forall p, In p a -> (ord p <= ord kv)%Z) -> (forall q, In q b -> (ord kv <= ord q)%Z) -> sorted (a ++ kv :: b).
Proof.
  intros a b kv Hs Ha Hb. apply sorted_app in Hs. destruct Hs as (Sa & Sb & Hab).
  apply sorted_app. split; [exact Sa|split; [split; [exact Hb|exact Sb]|]].
  intros p q Hp [<-|Hq]; [apply Ha; exact Hp|apply Hab; assumption].
Qed.


Lemma sorted_head_le : forall x r y, sorted (x :: r) -> In y (x :: r) -> (ord x <= ord y)%Z.
Proof. intros x r y [Hx _] [<-|Hy]; [lia|apply Hx; exact Hy]. Qed.

Lemma reposition_sorted : forall pre post k v, (forall y, In y pre -> fst y <> k) -> sorted (pre ++ post) ->
  sorted (l0_reposition_ordered var (pre ++ (k, v) :: post) k).
Proof.
  intros pre post k v Hn Hs. rewrite (l0_reposition_ordered_split var pre post k v Hn). cbv zeta.
  set (kv := (k, v)). set (lt := fun y => is_lt (cmpv var kv y)). set (gt := fun y => is_gt (cmpv var kv y)).
  pose proof Hs as Hs0. apply sorted_app in Hs0. destruct Hs0 as (Hp & Hq & Hpq).
  assert (Hpre : forall b, last_opt pre = Some b -> In b pre /\ forall p, In p pre -> (ord p <= ord b)%Z).
  { intros b Eb. split; [apply last_of_in; exact Eb|intros p Hpin; apply (sorted_le_last pre b p Hp Eb Hpin)]. }
  assert (Hpost : forall y, head_opt post = Some y -> forall q, In q post -> (ord y <= ord q)%Z).
  { intros y Ey q Hqin. destruct post as [|y' post']; [discriminate|]. injection Ey as ->. apply (sorted_head_le y post' q Hq Hqin). }
  destruct (match last_opt pre with Some b => _ | None => _ end) eqn:Gb.
  - destruct (last_opt pre) as [b|] eqn:Eb; [|discriminate]. apply is_lt_ord in Gb. destruct (Hpre b eq_refl) as [Hbin Hbmax].
    assert (Hkq : forall q, In q post -> (ord kv <= ord q)%Z) by (intros q Hqin; specialize (Hpq b q Hbin Hqin); lia).
    destruct (match head_opt pre with Some x => _ | None => _ end) eqn:Gx.
    + destruct pre as [|x pre']; [discriminate|]. apply is_lt_ord in Gx.
      apply (sorted_insert_mid [] ((x :: pre') ++ post) kv); [exact Hs|intros p []|].
      intros q Hqin. apply in_app_or in Hqin. destruct Hqin as [Hqin|Hqin]; [pose proof (sorted_head_le x pre' q Hp Hqin); lia|apply Hkq; exact Hqin].
    + apply sorted_insert_mid.
      * rewrite app_assoc, pre_suf. exact Hs.
      * intros p Hpin. apply (pre_le_of_last lt kv pre Hp); [|exact Hpin]. intros z Hz. apply is_lt_ord_false in Hz. exact Hz.
      * intros q Hqin. apply in_app_or in Hqin. destruct Hqin as [Hqin|Hqin]; [|apply Hkq; exact Hqin].
        unfold suf_of in Hqin. apply in_rev in Hqin. apply take_while_all in Hqin. apply is_lt_ord in Hqin. lia.
  - assert (Hle : forall p, In p pre -> (ord p <= ord kv)%Z).
    { intros p Hpin. destruct (last_opt pre) as [b|] eqn:Eb; [|apply last_of_none in Eb; subst pre; destruct Hpin].
      apply is_lt_ord_false in Gb. destruct (Hpre b eq_refl) as [_ Hbmax]. specialize (Hbmax p Hpin). lia. }
    destruct (match head_opt post with Some y => _ | None => _ end) eqn:Gy.
    + destruct (head_opt post) as [y|] eqn:Ey; [|discriminate]. apply is_gt_ord in Gy.
      assert (Hyin : In y post) by (apply head_opt_in; exact Ey).
      assert (Hprey : forall p, In p pre -> (ord p < ord kv)%Z) by (intros p Hpin; specialize (Hpq p y Hpin Hyin); lia).
      destruct (match last_opt post with Some z => _ | None => _ end) eqn:Gz.
      * destruct (last_opt post) as [z|] eqn:Ez; [|discriminate]. apply is_gt_ord in Gz.
        rewrite app_assoc. apply sorted_insert_mid; [rewrite app_nil_r; exact Hs| |intros q []].
        intros p Hpin. apply in_app_or in Hpin. destruct Hpin as [Hpin|Hpin]; [specialize (Hprey p Hpin); lia|].
        pose proof (sorted_le_last post z p Hq Ez Hpin). lia.
      * rewrite app_assoc. apply sorted_insert_mid.
        -- rewrite <- app_assoc, take_drop_while. exact Hs.
        -- intros p Hpin. apply in_app_or in Hpin. destruct Hpin as [Hpin|Hpin]; [specialize (Hprey p Hpin); lia|].
           apply take_while_all in Hpin. apply is_gt_ord in Hpin. lia.
        -- intros q Hqin.
           assert (Sd : sorted (drop_while gt post)).
           { rewrite <- (take_drop_while _ gt post) in Hq. apply sorted_app in Hq. apply Hq. }
           destruct (drop_while gt post) as [|r0 rs] eqn:Ed; [destruct Hqin|].
           assert (Hr0 : gt r0 = false) by (apply (drop_while_head _ gt post); rewrite Ed; reflexivity).
           apply is_gt_ord_false in Hr0. pose proof (sorted_head_le r0 rs q Sd Hqin). lia.
    + apply sorted_insert_mid; [exact Hs|exact Hle|]. intros q Hqin.
      destruct (head_opt post) as [y|] eqn:Ey; [|destruct post; [destruct Hqin|discriminate]].
      apply is_gt_ord_false in Gy. specialize (Hpost y eq_refl q Hqin). lia.
Qed.

Definition inv0 (x : tab0) : Prop := aasort x = true /\ sorted (pairs x).
Definition Inv0 (w0 : world0) : Prop := forall u, u < length w0 -> inv0 (gett0 w0 u).
Definition Keys0 (w0 : world0) : Prop := forall u, u < length w0 -> NoDup (map fst (pairs (gett0 w0 u))).

Lemma Inv0_sett0 : forall w0 t x, Inv0 w0 -> inv0 x -> Inv0 (sett0 w0 t x).
Proof.
  intros w0 t x H Hx u Hu. unfold sett0 in Hu. rewrite upd_nth_length in Hu. unfold gett0, sett0. destruct (Nat.eq_dec t u) as [->|Htu].
  - rewrite nth_upd_nth_same by exact Hu. exact Hx.
  - rewrite nth_upd_nth_other by exact Htu. apply H. exact Hu.
Qed.

Lemma a_set_split : forall l k old v, a_get l k = Some old ->
  exists pre post, l = pre ++ (k, old) :: post /\ (forall y, In y pre -> fst y <> k) /\ a_set l k v = pre ++ (k, v) :: post.
Proof.
  induction l as [|[k' v'] l IH]; intros k old v H; [discriminate|]. cbn [a_get a_set] in *.
  destruct (Z.eqb k' k) eqn:E.
  - apply Z.eqb_eq in E. subst k'. inversion H; subst v'. exists [], l. split; [reflexivity|split; [intros y []|reflexivity]].
  - destruct (IH k old v H) as (pre & post & -> & Hn & Es). exists ((k', v') :: pre), post.
    split; [reflexivity|split; [|cbn [app]; rewrite Es; reflexivity]].
    intros y [<-|Hy]; [cbn; apply Z.eqb_neq; exact E|apply Hn; exact Hy].
Qed.

Lemma sorted_remove_mid : forall a x b, sorted (a ++ x :: b) -> sorted (a ++ b).
Proof.
  intros a x b H. apply sorted_app in H. destruct H as (Ha & [_ Hb] & Hab). apply sorted_app.
  split; [exact Ha|split; [exact Hb|intros p q Hp Hq; apply Hab; [exact Hp|right; exact Hq]]].
Qed.

Hypothesis Hvar : var <> VPlain.

Lemma l0_ensure_inv : forall dcap x req sh, inv0 x -> inv0 (fst (l0_ensure dcap x req sh)).
Proof.
  intros dcap x req sh [A S]. unfold l0_ensure. destruct (N.eqb _ (acap x)); [split; assumption|].
  destruct (N.eqb _ 0); [split; [exact A|exact I]|]. destruct (N.eqb _ 4294967295); split; assumption.
Qed.

Lemma l0_put_inv : forall dcap x k v, inv0 x -> inv0 (fst (l0_put var dcap x k v)).
Proof.
  intros dcap x0 k v [A0 S0]. unfold l0_put.
  set (x := if N.eqb (acap x0) 0 then mkT0 (pairs x0) dcap (aasort x0) else x0).
  assert (Hx : inv0 x) by (unfold x; destruct (N.eqb (acap x0) 0); split; assumption).
  destruct Hx as [A S]. destruct (a_get (pairs x) k) as [old|] eqn:Eg.
  - destruct (a_set_split (pairs x) k old v Eg) as (pre & post & El & Hn & Es). cbn [fst]. split; [exact A|].
    cbn [pairs with_pairs]. rewrite Es. unfold l0_reposition. rewrite El in S. apply sorted_remove_mid in S.
    assert (R : sorted (l0_reposition_ordered var (pre ++ (k, v) :: post) k)) by (apply reposition_sorted; assumption).
    revert R. generalize (l0_reposition_ordered var (pre ++ (k, v) :: post) k). intros r R.
    destruct var eqn:EV; [contradiction| |]; exact R.
  - cbn [fst].
    set (x1 := if N.eqb (N.of_nat (length (pairs x))) (acap x) then fst (l0_ensure dcap x (acap x * 2) false) else x).
    assert (Hx1 : inv0 x1) by (unfold x1; destruct (N.eqb _ (acap x)); [apply l0_ensure_inv|]; split; assumption).
    destruct Hx1 as [A1 S1]. split; [exact A1|]. cbn [pairs with_pairs]. rewrite A1.
    destruct (insert_new_sorted (pairs x1) (k, v) S1) as [H|H]; [exact H|contradiction].
Qed.

Definition keeps_sorted (o : op) : bool :=
  match o with
  | OPutAtFront _ _ _ | OPutAtBack _ _ _ | OPutBefore _ _ _ _ | OPutBehind _ _ _ _ | OPutAtPos _ _ _ _
  | OMoveFront _ _ | OMoveBack _ _ | OMoveBefore _ _ _ | OMoveBehind _ _ _ | OMovePos _ _ _
  | OGetMoveFront _ _ | OGetMoveBack _ _ | OSortKey _ | OSortVal _ | OSetAutoSort _ _ _ => false
  | _ => true
  end.

Lemma l0_sort_aux_sorted : forall l, sorted (l0_sort_aux var l).
Proof.
  intros l. unfold l0_sort_aux. pose proof (stable_sort_sorted l) as R. revert R. generalize (stable_sort (cmpv var) l). intros r R.
  destruct var; [contradiction| |]; exact R.
Qed.

Lemma l0_copy_from_inv : forall dcap x src cf, inv0 x -> inv0 (fst (l0_copy_from var dcap x src cf)).
Proof.
  intros dcap x src cf [A S]. unfold l0_copy_from.
  set (x1 := if cf then l0_clear dcap x ((length src =? 0) && (dcap <? acap x)%N) else x).
  assert (H1 : inv0 x1) by (unfold x1; destruct cf; [split; [exact A|exact I]|split; assumption]).
  destruct src as [|kv src']; [exact H1|].
  pose proof (l0_ensure_inv dcap x1 (N.of_nat (length (pairs x1) + length (kv :: src'))) false H1) as H2.
  destruct (l0_ensure dcap x1 _ false) as [x2 st]. cbn [fst] in H2. destruct (st =? 0); [|exact H2].
  cbn [fst]. destruct H2 as [A2 S2]. split; [exact A2|]. cbn [pairs with_pairs]. apply l0_sort_aux_sorted.
Qed.

Lemma l0_reposition_sorted_id : forall l k, sorted l -> sorted (l0_reposition var l k).
Proof.
  intros l k S. unfold l0_reposition.
  assert (R : sorted (l0_reposition_ordered var l k)).
  { unfold l0_reposition_ordered. destruct (a_index l k 0) as [i|] eqn:Ei; [|exact S]. destruct (a_get l k) as [v|] eqn:Eg; [|exact S].
    destruct (a_set_split l k v v Eg) as (pre & post & El & Hn & _).
    pose proof (reposition_sorted pre post k v Hn) as R. rewrite El in S. pose proof (sorted_remove_mid _ _ _ S) as S'. specialize (R S').
    unfold l0_reposition_ordered in R. rewrite <- El in R. rewrite Ei, Eg in R. exact R. }
  revert R. generalize (l0_reposition_ordered var l k). intros r R. destruct var; [contradiction| |]; exact R.
Qed.

Lemma removelast_sorted : forall l, sorted l -> sorted (removelast l).
Proof.
  intros l S. destruct (last_opt l) as [z|] eqn:E.
  - unfold last_opt in E. fold (last_of l) in E. destruct (last_of_split _ _ _ E) as (a & ->). rewrite removelast_last.
    apply sorted_app in S. apply S.
  - unfold last_opt in E. fold (last_of l) in E. apply last_of_none in E. subst l. exact I.
Qed.

(* the ways a table is written by step0 *)
Lemma inv0_with_pairs : forall x l, inv0 x -> sorted l -> inv0 (with_pairs x l).
Proof. intros x l [A _] S. split; assumption. Qed.
Lemma inv0_mk : forall l c a, a = true -> sorted l -> inv0 (mkT0 l c a).
Proof. intros. split; assumption. Qed.
Lemma inv0_asort : forall x, inv0 x -> aasort x = true.
Proof. intros x [A _]. exact A. Qed.
Lemma inv0_sorted : forall x, inv0 x -> sorted (pairs x).
Proof. intros x [_ S]. exact S. Qed.
Lemma sorted_nil : sorted [].
Proof. exact I. Qed.
Hint Resolve Inv0_sett0 inv0_with_pairs inv0_mk inv0_asort inv0_sorted sorted_nil l0_put_inv l0_ensure_inv l0_copy_from_inv
  sorted_a_remove sorted_filter removelast_sorted l0_sort_aux_sorted l0_reposition_sorted_id : inv0.

(* every case: strip the guards of step0, then the table written is one of the above *)
Lemma step0_inv : forall dcap w0 o, Inv0 w0 -> keeps_sorted o = true -> Inv0 (fst (step0 var dcap w0 o)).
Proof.
  intros dcap w0 o H K.
  assert (G : forall t, inv0 (gett0 w0 t)).
  { intros t. destruct (Nat.lt_ge_cases t (length w0)) as [Ht|Ht]; [apply H; exact Ht|].
    unfold gett0. rewrite nth_overflow by exact Ht. split; [reflexivity|exact I]. }
  destruct o; try discriminate K; cbn [step0]; try exact H;
    try (destruct (valid_t0 w0 t); [|exact H]); try (destruct (valid_t0 w0 u); [|exact H]; cbn [andb]).
  - (* Put *) rewrite (surjective_pairing (l0_put var dcap (gett0 w0 t) k v)). cbn [fst]. auto with inv0.
  - (* PutIfAbsent *) destruct (a_get _ k); [exact H|]. cbn [fst]. auto with inv0.
  - (* GetOrPut *) destruct (a_get _ k); [exact H|]. cbn [fst]. auto with inv0.
  - (* Remove *) destruct (a_get _ k); [|exact H]. cbn [fst]. auto with inv0.
  - (* RemoveFirst *) pose proof (inv0_sorted _ (G t)) as S. destruct (pairs (gett0 w0 t)) as [|kv r]; [exact H|]. cbn [fst].
    apply Inv0_sett0; [exact H|apply inv0_with_pairs; [apply G|apply S]].
  - (* RemoveLast *) destruct (last_opt (pairs (gett0 w0 t))); [|exact H]. cbn [fst]. auto with inv0.
  - (* Sort *) cbn [fst]. auto with inv0.
  - (* Reposition *) destruct (a_get _ k); [|exact H]. cbn [fst]. auto with inv0.
  - (* Ensure *) rewrite (surjective_pairing (l0_ensure dcap (gett0 w0 t) n shrink)). cbn [fst]. auto with inv0.
  - (* ShrinkFit *) destruct (N.ltb _ _); [exact H|]. rewrite (surjective_pairing (l0_ensure dcap (gett0 w0 t) _ true)). cbn [fst]. auto with inv0.
  - (* EnsureCanPut *) destruct (N.ltb _ _); [exact H|]. rewrite (surjective_pairing (l0_ensure dcap (gett0 w0 t) _ false)). cbn [fst]. auto with inv0.
  - (* Clear *) cbn [fst]. unfold l0_clear. auto with inv0.
  - (* CopyFrom *) destruct (t =? u); [exact H|]. rewrite (surjective_pairing (l0_copy_from var dcap (gett0 w0 t) _ clearfirst)). cbn [fst]. auto with inv0.
  - (* CopyCtor *) destruct (t =? u); [exact H|]. rewrite (surjective_pairing (l0_copy_from var dcap (mkT0 [] (acap (gett0 w0 u)) true) _ true)). cbn [fst].
    auto with inv0.
  - (* Swap *) destruct (t =? u); [exact H|]. cbn [fst]. auto 6 with inv0.
  - (* Equal *) exact H.
  - (* MoveToTable *) destruct (a_get _ k); [|exact H]. destruct (t =? u); [exact H|]. cbn [fst]. auto 6 with inv0.
  - (* CopyToTable *) destruct (a_get _ k); [|exact H]. destruct (t =? u); [exact H|]. cbn [fst]. auto with inv0.
  - (* RemoveTable *) destruct (t =? u); cbn [fst]; [unfold l0_clear|]; auto with inv0.
  - (* Intersect *) destruct (t =? u); [exact H|]. cbn [fst]. auto with inv0.
  - (* Destroy *) cbn [fst]. auto with inv0.
  - (* MoveCtor *) destruct (t =? u); [exact H|]. cbn [fst]. auto 6 with inv0.
  - (* Prealloc *) cbn [fst]. auto with inv0.
Qed.

End S.
