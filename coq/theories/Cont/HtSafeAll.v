(* C09 -- the world invariant is preserved by EVERY operation; iterator safety and table consistency
   for all reachable worlds without restriction on the operations. *)
From Coq Require Import List Arith ZArith NArith PArith Bool Lia FMapPositive Permutation.
From Muscle Require Import Cont.HtModel Cont.HtStep Cont.HtRepr Cont.HtIters Cont.HtPut Cont.HtInv Cont.HtSafe Cont.HtSwap.
Import ListNotations.

Section All.
Variable var : variant.
Variable dcap : N.

Theorem step1_WF : forall w o, WF w -> WF (fst (step1 var dcap w o)).
Proof.
  intros w o W. destruct (covered o) eqn:C; [apply step1_WF_covered; assumption|].
  destruct o; try discriminate C; cbn [step1]; vt ltac:(exact W);
    (destruct (t =? u) eqn:E; [exact W|]); apply Nat.eqb_neq in E.
  - (* SwapContents *) apply (WF_exchange w t u _ _ W V1 V2 E); repeat split.
  - (* move construction *) unfold clear_tab. cbn [fst fresh]. rewrite (movector_exchange w t u dcap _ V1 E).
    apply WF_exchange; rewrite ?len_put, ?gett_put_other, ?gett_put_same by assumption; try assumption; [|repeat split..].
    apply (WF_okstep w t (_, _) W V1 (emptied_ok t _ _ dcap true (wf_tabs _ W t V1))).
Qed.

Lemma run1_WF : forall ops w, WF w -> WF (run1 var dcap w ops).
Proof.
  induction ops as [|o ops IH]; intros w W; [exact W|]. cbn [run1 fold_left]. apply IH. apply step1_WF. exact W.
Qed.

Theorem iter_safe : forall nt ni ops,
  let w := run1 var dcap (init_world dcap nt ni) ops in
  forall i it c, geti (its w) i = Some it -> icookie it = Some c ->
    inoreg it = false /\
    exists t, iown it = Some t /\ t < length (tabs w) /\ In i (ilist (gett w t)) /\
              In c (ids (gett w t)) /\ kv_of (gett w t) c <> None.
Proof. intros nt ni ops. apply WF_safe. apply run1_WF. apply WF_init. Qed.

(* what an iterator shows is its scratch copy or the pair of a live entry of its table *)
Theorem shown_safe : forall nt ni ops,
  let w := run1 var dcap (init_world dcap nt ni) ops in
  forall i kv, shown w i = Some kv ->
    exists it, geti (its w) i = Some it /\
      (iscr it = Some kv \/
       (iscr it = None /\ exists t c, iown it = Some t /\ icookie it = Some c /\ In c (ids (gett w t)) /\
                                      In kv (abs (gett w t)) /\ kv_of (gett w t) c = Some kv)).
Proof. intros nt ni ops. apply WF_shown. apply run1_WF. apply WF_init. Qed.

Theorem tables_consistent : forall nt ni ops,
  let w := run1 var dcap (init_world dcap nt ni) ops in
  forall t, t < length (tabs w) ->
    abs_back (gett w t) = rev (abs (gett w t)) /\ NoDup (map fst (abs (gett w t))) /\
    cnt (gett w t) = length (abs (gett w t)).
Proof. intros nt ni ops. apply WF_consistent. apply run1_WF. apply WF_init. Qed.

End All.
