(* C09 -- the traversal theorems: a registered iterator advanced through any interleaving with quiet
   operations (calm ones, and relinking ones that leave the order of its table unchanged) shows no
   entry twice and misses no entry that stayed in its table. *)
From Coq Require Import List Arith ZArith NArith PArith Bool Lia FMapPositive Permutation.
From Muscle Require Import Cont.HtModel Cont.HtStep Cont.HtIdeal Cont.HtLemmas Cont.HtRepr Cont.HtWalk Cont.HtIters
                           Cont.HtTable Cont.HtPut Cont.HtPend Cont.HtRefTab Cont.HtInv Cont.HtSafe Cont.HtSafeAll
                           Cont.HtTravW Cont.HtTravOps Cont.HtTravSem.
Import ListNotations.

Definition opt_list {A} (o : option A) : list A := match o with Some x => [x] | None => [] end.

Lemma rest_of_step : forall (bw : bool) (l : list positive) c x, NoDup l -> In c l ->
  (if bw then prev_in l c else next_in l c) = Some x ->
  In x (rest_of bw l c) /\ ~ In x (rest_of bw l x) /\
  (forall n, In n (rest_of bw l x) -> In n (rest_of bw l c)) /\
  (forall n, In n (rest_of bw l c) -> In n (rest_of bw l x) \/ n = x).
Proof.
  intros bw l c x Hnd Hc Hx. destruct (in_split _ _ Hc) as (l1 & l2 & ->).
  destruct (nodup_split_notin _ _ _ Hnd) as [H1 H2]. unfold rest_of. destruct bw.
  - rewrite prev_in_mid in Hx by exact H1. rewrite before_mid by exact H1.
    destruct (last_of_split _ _ _ Hx) as (a & ->).
    assert (Hxa : ~ In x a).
    { rewrite <- app_assoc in Hnd. cbn [app] in Hnd. apply (nodup_split_notin _ _ _ Hnd). }
    rewrite <- app_assoc. cbn [app]. rewrite before_mid by exact Hxa.
    split; [apply in_or_app; right; left; reflexivity|split; [exact Hxa|split]].
    + intros n Hn. apply in_or_app. left; exact Hn.
    + intros n Hn. apply in_app_or in Hn. destruct Hn as [Hn|[Hn|[]]]; [left; exact Hn|right; symmetry; exact Hn].
  - rewrite next_in_mid in Hx by exact H1. rewrite after_mid by exact H1.
    destruct l2 as [|y l2']; [discriminate|]. cbn [head_opt] in Hx. inversion Hx; subst y.
    assert (Hx1 : ~ In x (l1 ++ [c])).
    { intro Hin. apply in_app_or in Hin. apply nodup_remove_mid in Hnd. apply nodup_split_notin in Hnd.
      destruct Hin as [Hin|[Hin|[]]]; [tauto|]. subst x. apply H2. left; reflexivity. }
    assert (El : l1 ++ c :: x :: l2' = (l1 ++ [c]) ++ x :: l2') by (rewrite <- app_assoc; reflexivity).
    rewrite El, after_mid by exact Hx1.
    assert (Hx2 : ~ In x l2').
    { rewrite El in Hnd. apply (nodup_split_notin _ _ _ Hnd). }
    split; [left; reflexivity|split; [exact Hx2|split]].
    + intros n Hn. right; exact Hn.
    + intros n [Hn|Hn]; [right; symmetry; exact Hn|left; exact Hn].
Qed.

Lemma rest_of_notin_self : forall bw (l : list positive) c, NoDup l -> ~ In c (rest_of bw l c).
Proof.
  intros bw l c Hnd Hin. assert (Hc : In c l) by (eapply rest_of_incl; exact Hin).
  destruct (in_split _ _ Hc) as (l1 & l2 & ->). destruct (nodup_split_notin _ _ _ Hnd) as [H1 H2].
  unfold rest_of in Hin. destruct bw; [rewrite before_mid in Hin by exact H1|rewrite after_mid in Hin by exact H1]; contradiction.
Qed.

Lemma rest_of_none : forall (bw : bool) (l : list positive) c, NoDup l -> In c l ->
  (if bw then prev_in l c else next_in l c) = None -> rest_of bw l c = [].
Proof.
  intros bw l c Hnd Hc Hx. destruct (in_split _ _ Hc) as (l1 & l2 & ->).
  destruct (nodup_split_notin _ _ _ Hnd) as [H1 H2]. unfold rest_of. destruct bw.
  - rewrite prev_in_mid in Hx by exact H1. rewrite before_mid by exact H1. apply last_of_none. exact Hx.
  - rewrite next_in_mid in Hx by exact H1. rewrite after_mid by exact H1. destruct l2; [reflexivity|discriminate].
Qed.

Section Thm.
Variable var : variant.
Variable dcap : N.

Lemma adv_step : forall w i, WF w ->
  let w' := fst (step1 var dcap w (OIterAdv i)) in
  it_list w' i = it_list w i /\ it_fresh w' i = it_fresh w i /\ it_owner w' i = it_owner w i /\
  (reg w i -> reg w' i) /\
  (forall n, In n (pending w' i) -> In n (pending w i)) /\
  (forall n, In n (pending w i) -> In n (pending w' i) \/ cur w' i = Some n) /\
  (forall x, cur w' i = Some x -> In x (pending w i) /\ ~ In x (pending w' i)).
Proof.
  intros w i W. cbn [step1]. destruct (geti (its w) i) as [it|] eqn:Hg.
  2:{ cbn [fst]. split; [reflexivity|split; [reflexivity|split; [reflexivity|split; [auto|split; [auto|split; [auto|]]]]]].
      intros x0 Hv. unfold cur in Hv. rewrite Hg in Hv. discriminate. }
  cbn [fst].
  set (it' := match iscr it with
              | Some _ => mkIter (iown it) (icookie it) (ibw it) (inoreg it) None
              | None => mkIter (iown it) (match iown it with Some t => subseq (gett w t) (icookie it) (ibw it) | None => None end) (ibw it) (inoreg it) None
              end).
  set (w' := seti_w w (seti (its w) i (Some it'))).
  assert (Hg' : geti (its w') i = Some it') by (apply geti_seti_same; apply (geti_some_lt _ _ _ Hg)).
  assert (E : iown it' = iown it /\ inoreg it' = inoreg it /\ ibw it' = ibw it /\ iscr it' = None)
    by (unfold it'; destruct (iscr it); auto).
  destruct E as (Eo & En & Eb & Es).
  destruct (slot_view w i it Hg) as (Eo0 & El0 & Ef0 & _). destruct (slot_view w' i it' Hg') as (Eo1 & El1 & Ef1 & _).
  rewrite Eo in Eo1, El1, Ef1. rewrite Eo0, Eo1, El0, El1, Ef0, Ef1.
  split; [reflexivity|split; [reflexivity|split; [reflexivity|]]].
  split; [intros (it0 & Hg0 & R0); rewrite Hg in Hg0; inversion Hg0; subst it0; exists it'; split; [exact Hg'|congruence]|].
  assert (Gt : forall t, gett w' t = gett w t) by reflexivity.
  unfold pending, cur. rewrite Hg', Hg, Eo, Es.
  destruct (iown it) as [t|] eqn:O; [|split; [intros n []|split; [intros n []|intros x0 Hv; discriminate]]].
  rewrite Gt.
  pose proof (wf_its _ W i it Hg) as Ht. rewrite O in Ht.
  destruct (tl_tinv _ _ _ (wf_tabs _ W t Ht)) as (l & T). rewrite (tinv_ids _ l T).
  pose proof (lk_nodup _ _ (ti_linked _ _ T)) as Hnd.
  unfold pend. rewrite Eb, Es.
  destruct (icookie it) as [c|] eqn:Ec.
  - (* a cookie *)
    destruct (WF_cookie w i it c W Hg Ec) as [_ (t' & O' & _ & Lc)]. rewrite O in O'. inversion O'; subst t'.
    pose proof (ti_dom _ _ T c Lc) as Hc.
    destruct (iscr it) as [s|] eqn:Escr.
    + (* scratch dropped, same cookie *)
      assert (Ek : icookie it' = Some c) by (unfold it'; cbn [icookie]; reflexivity). rewrite Ek. cbn [app].
      split; [intros n Hn; right; exact Hn|split].
      * intros n [<-|Hn]; [right; reflexivity|left; exact Hn].
      * intros x0 Hv. inversion Hv; subst x0. split; [left; reflexivity|apply rest_of_notin_self; exact Hnd].
    + (* moves along a link *)
      assert (Ek : icookie it' = (if ibw it then prev_in l c else next_in l c)).
      { unfold it'. cbn [icookie]. rewrite ?O, ?Ec. cbn [subseq].
        destruct (ibw it); [apply (lk_prev _ _ (ti_linked _ _ T) c Hc)|apply (lk_next _ _ (ti_linked _ _ T) c Hc)]. }
      rewrite Ek. cbn [app].
      destruct (if ibw it then prev_in l c else next_in l c) as [x|] eqn:Ex.
      * destruct (rest_of_step (ibw it) l c x Hnd Hc Ex) as (A & B & C & D).
        split; [exact C|split; [intros n Hn; destruct (D n Hn) as [D1|D1]; [left; exact D1|right; subst; reflexivity]|]].
        intros x0 Hv. inversion Hv; subst x0. auto.
      * rewrite (rest_of_none (ibw it) l c Hnd Hc Ex). split; [intros n []|split; [intros n []|intros x0 Hv; discriminate]].
  - (* no cookie *)
    assert (Ek : icookie it' = None).
    { unfold it'. destruct (iscr it); cbn [icookie]; reflexivity. }
    rewrite Ek. split; [intros n []|split; [intros n []|intros x0 Hv; discriminate]].
Qed.

(* the entries the iterator newly shows, one per advance *)
Fixpoint trav (i : nat) (w : world) (ops : list op) : list positive :=
  match ops with
  | [] => []
  | o :: r =>
    let w' := fst (step1 var dcap w o) in
    (match o with OIterAdv j => if Nat.eqb j i then opt_list (cur w' i) else [] | _ => [] end) ++ trav i w' r
  end.

(* a traversal of iterator i: advances of i, interleaved with quiet operations that do not operate on i *)
Inductive tr_ok (i : nat) : world -> list op -> Prop :=
| tr_nil : forall w, tr_ok i w []
| tr_adv : forall w r, tr_ok i (fst (step1 var dcap w (OIterAdv i))) r -> tr_ok i w (OIterAdv i :: r)
| tr_mut : forall w o r, touches i o = false -> quiet var dcap i w o ->
             tr_ok i (fst (step1 var dcap w o)) r -> tr_ok i w (o :: r).

(* n stays in the iterator's table through the whole run *)
Fixpoint stays (i : nat) (n : positive) (w : world) (ops : list op) : Prop :=
  match ops with
  | [] => True
  | o :: r => In n (it_list (fst (step1 var dcap w o)) i) /\ stays i n (fst (step1 var dcap w o)) r
  end.

(* the same premise as a decidable check: every operation other than an advance of i does not operate
   on i, is not a double move, and keeps the relative order of the entries of i's table *)
Fixpoint sem_okd (i : nat) (w : world) (ops : list op) : bool :=
  match ops with
  | [] => true
  | o :: r =>
    let w' := fst (step1 var dcap w o) in
    (match o with
     | OIterAdv j => if Nat.eqb j i then true else order_keptb (it_list w i) (it_list w' i)
     | _ => negb (touches i o) && negb (double_move var w o) && order_keptb (it_list w i) (it_list w' i)
     end) && sem_okd i w' r
  end.

Lemma calm_of_not_relinking : forall w o, relinking o = false -> calm var dcap w o.
Proof. intros w o H. destruct o; cbn [relinking] in H; try discriminate H; exact I. Qed.

Lemma sem_okd_tr_ok : forall i ops w, sem_okd i w ops = true -> tr_ok i w ops.
Proof.
  intros i. induction ops as [|o r IH]; intros w H; [constructor|].
  cbn [sem_okd] in H. apply andb_prop in H. destruct H as [H1 H2]. specialize (IH _ H2).
  assert (G : forall o', o' = o -> touches i o' = false -> double_move var w o' = false ->
              order_keptb (it_list w i) (it_list (fst (step1 var dcap w o')) i) = true -> tr_ok i w (o' :: r)).
  { intros o' -> Ht Hd Hk. apply tr_mut; [exact Ht| |exact IH].
    destruct (relinking o) eqn:Rl; [right; auto|left; apply calm_of_not_relinking; exact Rl]. }
  destruct o; try (apply andb_prop in H1; destruct H1 as [H1 Hk]; apply andb_prop in H1; destruct H1 as [Ht Hd];
                   apply negb_true_iff in Ht; apply negb_true_iff in Hd; apply (G _ eq_refl Ht Hd Hk)).
  destruct (Nat.eqb i0 i) eqn:E.
  - apply Nat.eqb_eq in E. subst i0. apply tr_adv. exact IH.
  - apply (G _ eq_refl); [cbn [touches]; exact E|reflexivity|exact H1].
Qed.

Lemma trav_mut : forall i w o r, touches i o = false ->
  trav i w (o :: r) = trav i (fst (step1 var dcap w o)) r.
Proof.
  intros i w o r Ht. cbn [trav]. destruct o; try reflexivity. cbn [touches] in Ht. rewrite Ht. reflexivity.
Qed.

Lemma trav_adv : forall i w r,
  trav i w (OIterAdv i :: r) = opt_list (cur (fst (step1 var dcap w (OIterAdv i))) i) ++ trav i (fst (step1 var dcap w (OIterAdv i))) r.
Proof. intros. cbn [trav]. rewrite Nat.eqb_refl. reflexivity. Qed.

Lemma cur_detached : forall w i, it_owner w i = None -> cur w i = None.
Proof.
  intros w i O. unfold cur, it_owner in *. destruct (geti (its w) i) as [it|]; [|reflexivity].
  rewrite O. destruct (iscr it); reflexivity.
Qed.

(* a detached iterator shows nothing any more *)
Lemma trav_detached : forall i ops w, WF w -> reg w i -> it_owner w i = None -> tr_ok i w ops -> trav i w ops = [].
Proof.
  intros i. induction ops as [|o r IH]; intros w W R O Ok; [reflexivity|].
  inversion Ok as [|w0 r0 Ok'|w0 o0 r0 Ht Hc Ok']; subst.
  - destruct (adv_step w i W) as (El & Ef & Eo & Rg & _). cbn zeta in *.
    rewrite trav_adv. rewrite (cur_detached _ i) by (rewrite Eo; exact O). cbn [opt_list app].
    apply IH; [apply step1_WF; exact W|apply Rg; exact R|rewrite Eo; exact O|exact Ok'].
  - rewrite (trav_mut i w o r Ht).
    destruct (quiet_step var dcap w o i W Hc Ht R) as [[Cn Cf Ck Cr Cd] R'].
    apply IH; [apply step1_WF; exact W|exact R'|apply Cd; exact O|exact Ok'].
Qed.

(* One induction for the three facts about a traversal: everything shown later was pending now or
   did not exist yet; no entry is shown twice; nothing that stays in the table is skipped. *)
Lemma trav_spec : forall i ops w, WF w -> reg w i -> tr_ok i w ops ->
  (forall n, In n (trav i w ops) -> In n (pending w i) \/ (it_fresh w i <= n)%positive) /\
  NoDup (trav i w ops) /\
  (forall n, In n (pending w i) -> stays i n w ops ->
     In n (trav i w ops) \/ In n (pending (run1 var dcap w ops) i)).
Proof.
  intros i. induction ops as [|o r IH]; intros w W R Ok; [split; [intros n []|split; [constructor|intros n Hp _; right; exact Hp]]|].
  inversion Ok as [|w0 r0 Ok'|w0 o0 r0 Ht Hc Ok']; subst.
  - (* advance *)
    destruct (adv_step w i W) as (El & Ef & Eo & Rg & Psub & Pk & Pc). cbn zeta in *.
    rewrite trav_adv. change (run1 var dcap w (OIterAdv i :: r)) with (run1 var dcap (fst (step1 var dcap w (OIterAdv i))) r).
    set (w' := fst (step1 var dcap w (OIterAdv i))) in *.
    destruct (IH w' (step1_WF var dcap w _ W) (Rg R) Ok') as (B & N & S).
    assert (B0 : forall n, In n (opt_list (cur w' i) ++ trav i w' r) -> In n (pending w i) \/ (it_fresh w i <= n)%positive).
    { intros n Hn. apply in_app_or in Hn. destruct Hn as [Hn|Hn].
      - destruct (cur w' i) as [x|] eqn:Ec; [|destruct Hn]. destruct Hn as [<-|[]]. left. apply (Pc x eq_refl).
      - destruct (B n Hn) as [H|H]; [left; apply Psub; exact H|right; rewrite <- Ef; exact H]. }
    split; [exact B0|split].
    + destruct (cur w' i) as [x|] eqn:Ec; cbn [opt_list app]; [|exact N]. constructor; [|exact N].
      intro Hin. destruct (Pc x eq_refl) as [Hp Hnp]. destruct (B x Hin) as [H|H]; [contradiction|].
      pose proof (it_list_bound w i x W (pending_incl w i x W Hp)) as Bd. rewrite Ef in H. lia.
    + intros n Hp [_ St2]. destruct (Pk n Hp) as [H|H]; [|left; rewrite H; left; reflexivity].
      destruct (S n H St2) as [A|A]; [left; apply in_or_app; right; exact A|right; exact A].
  - (* quiet mutation *)
    rewrite (trav_mut i w o r Ht). change (run1 var dcap w (o :: r)) with (run1 var dcap (fst (step1 var dcap w o)) r).
    destruct (quiet_step var dcap w o i W Hc Ht R) as [[Cn Cf Ck Cr Cd] R'].
    destruct (IH _ (step1_WF var dcap w o W) R' Ok') as (B & N & S).
    split; [|split; [exact N|intros n Hp [St1 St2]; apply (S n (Ck n Hp St1) St2)]].
    intros n Hn. destruct (it_owner (fst (step1 var dcap w o)) i) eqn:O.
    + destruct (B n Hn) as [H|H]; [apply Cr; exact H|]. right. eapply Pos.le_trans; [apply Cf; congruence|exact H].
    + rewrite (trav_detached i r _ (step1_WF var dcap w o W) R' O Ok') in Hn. destruct Hn.
Qed.

Lemma shown_none_pending : forall w i, WF w -> shown w i = None -> pending w i = [].
Proof.
  intros w i W Hs. unfold shown in Hs. unfold pending. destruct (geti (its w) i) as [it|] eqn:Hg; [|reflexivity].
  destruct (iscr it) eqn:Es; [discriminate|]. destruct (iown it) as [t|] eqn:O; [|reflexivity].
  unfold pend. rewrite Es. destruct (icookie it) as [c|] eqn:Ec; [|reflexivity].
  destruct (WF_cookie w i it c W Hg Ec) as [_ (t' & O' & _ & L)]. rewrite O in O'. inversion O'; subst t'.
  rewrite (kv_of_live _ c L) in Hs. discriminate.
Qed.

Lemma rest_of_end : forall (bw : bool) (l : list positive) c, NoDup l ->
  (if bw then last_of l else head_opt l) = Some c ->
  forall n, In n l -> n = c \/ In n (rest_of bw l c).
Proof.
  intros bw l c Hnd Hc n Hn. unfold rest_of. destruct bw.
  - destruct (last_of_split _ _ _ Hc) as (a & ->).
    assert (Ha : ~ In c a) by (apply (nodup_split_notin _ _ _ Hnd)).
    rewrite before_mid by exact Ha. apply in_app_or in Hn. destruct Hn as [Hn|[Hn|[]]]; [right; exact Hn|left; symmetry; exact Hn].
  - destruct l as [|x r]; [discriminate|]. cbn [head_opt] in Hc. inversion Hc; subst x.
    cbn [after]. rewrite Pos.eqb_refl. destruct Hn as [Hn|Hn]; [left; symmetry; exact Hn|right; exact Hn].
Qed.

(* An iterator created at one end of a non-empty table and advanced, interleaved with quiet
   operations, until it shows nothing: it has shown no entry twice, and it has shown every entry
   that was in its table from the creation to the end. *)
Theorem traversal_complete : forall w0 i t bw ops, WF w0 ->
  i < length (its w0) -> t < length (tabs w0) -> cnt (gett w0 t) <> 0 ->
  let w := fst (step1 var dcap w0 (OIterNew i t bw)) in
  tr_ok i w ops ->
  shown (run1 var dcap w ops) i = None ->
  let V := opt_list (cur w i) ++ trav i w ops in
  NoDup V /\ (forall n, In n (ids (gett w0 t)) -> stays i n w ops -> In n V).
Proof.
  intros w0 i t bw ops W0 Hi Ht Hne w Ok Hend V.
  assert (W : WF w) by (apply step1_WF; exact W0).
  (* the freshly created iterator *)
  destruct (tl_tinv _ _ _ (wf_tabs _ W0 t Ht)) as (l & T).
  assert (Hl : l <> []) by (intro E; subst l; apply Hne; apply (ti_cnt _ _ T)).
  pose proof (ti_linked _ _ T) as L. pose proof (lk_nodup _ _ L) as Hnd.
  assert (Ec : exists c, (if bw then last_of l else head_opt l) = Some c).
  { destruct bw.
    - destruct (last_of l) eqn:E; [eexists; reflexivity|apply last_of_none in E; contradiction].
    - destruct l; [contradiction|eexists; reflexivity]. }
  destruct Ec as (c & Ec).
  assert (Hw : w = register (unregister w0 i) i t (Some c) bw false None).
  { unfold w. cbn [step1]. unfold valid_i, valid_t. rewrite (proj2 (Nat.ltb_lt _ _) Hi), (proj2 (Nat.ltb_lt _ _) Ht). cbn [andb fst].
    f_equal. destruct (unregister_view w0 i t W0 Ht) as (il & -> & _). cbn [hd tl with_ilist].
    rewrite (lk_hd _ _ L), (lk_tl _ _ L). destruct bw; exact Ec. }
  set (it0 := mkIter (Some t) (Some c) bw false None).
  assert (Hg : geti (its w) i = Some it0).
  { rewrite Hw. unfold register. cbn [its sett seti_w]. apply geti_seti_same. rewrite its_unregister. exact Hi. }
  assert (Ids : ids (gett w t) = l).
  { rewrite Hw. destruct (ids_register (unregister w0 i) i t (Some c) bw false None t) as [A _]. rewrite A.
    destruct (ids_unregister w0 i t) as [B _]. rewrite B. apply (tinv_ids _ l T). }
  assert (R : reg w i) by (exists it0; split; [exact Hg|reflexivity]).
  assert (Ecur : cur w i = Some c) by (unfold cur; rewrite Hg; reflexivity).
  destruct (slot_view w i it0 Hg) as (_ & Elist & _ & Epend). cbn [iown it0] in Elist, Epend. rewrite Ids in Elist, Epend.
  change (pend l it0) with (rest_of bw l c) in Epend.
  assert (Hcl : In c l) by (destruct bw; [apply last_of_in|apply head_opt_in]; exact Ec).
  unfold V. rewrite Ecur. cbn [opt_list app]. destruct (trav_spec i ops w W R Ok) as (B & N & S). split.
  - constructor; [|exact N].
    intro Hin. destruct (B c Hin) as [H|H].
    + rewrite Epend in H. apply (rest_of_notin_self bw l c Hnd H).
    + assert (Bd : (c < it_fresh w i)%positive) by (apply (it_list_bound w i c W); rewrite Elist; exact Hcl). lia.
  - intros n Hn St. rewrite (tinv_ids _ l T) in Hn.
    destruct (rest_of_end bw l c Hnd Ec n Hn) as [->|Hp]; [left; reflexivity|right].
    rewrite <- Epend in Hp. destruct (S n Hp St) as [A|A]; [exact A|].
    rewrite (shown_none_pending _ i (run1_WF var dcap ops w W) Hend) in A. destruct A.
Qed.

End Thm.
