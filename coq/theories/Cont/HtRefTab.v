(* C09 -- refinement, table level: what each table function of HtModel does to [abs]. *)
From Coq Require Import List Arith ZArith NArith PArith Bool Lia FMapPositive Permutation.
From Muscle Require Import Cont.HtModel Cont.HtStep Cont.HtIdeal Cont.HtLemmas Cont.HtRepr Cont.HtWalk Cont.HtIters
                           Cont.HtTable Cont.HtMoves Cont.HtOrdered Cont.HtPut Cont.HtExact Cont.HtAbs.
Import ListNotations.

Lemma abs_same_data : forall h h' l l', tinv h l -> tinv h' l' -> same_data h h' -> abs h' = map (kvf h) l'.
Proof.
  intros h h' l l' T T' S. rewrite (tinv_abs h' l' T'). apply map_ext. intros y. apply kvf_same_data. exact S.
Qed.

(* ------------------------------------------------------------------ RemoveEntry *)

Lemma abs_remove_entry : forall h I l1 l2 e, tinv h (l1 ++ e :: l2) ->
  let h' := fst (remove_entry h I e) in
  tinv h' (l1 ++ l2) /\ abs h' = a_remove (abs h) (keyf h e) /\ cap h' = cap h /\ asort h' = asort h /\
  fresh h' = fresh h /\ ilist h' = ilist h /\ snd (remove_entry h I e) = patch_all h e I.
Proof.
  intros h I l1 l2 e T. unfold remove_entry, remove_iter_entry. cbn [fst snd].
  destruct (tinv_remove_entry h l1 l2 e T) as (T' & _ & _ & Kv & _ & Hcap & Hfr & Has & Hil).
  split; [exact T'|split; [|auto]].
  rewrite (tinv_abs _ _ T'), (tinv_abs _ _ T).
  rewrite (a_remove_map_split h l1 e l2 (keys_split_left h l1 e l2 (ti_keys _ _ T))).
  apply map_ext_in. intros y Hy. apply Kv. intro; subst.
  pose proof (tinv_nodup _ _ T) as Hnd. apply nodup_split_notin in Hnd. apply in_app_or in Hy. tauto.
Qed.

Lemma abs_tab_remove_entry : forall h I l e, tinv h l -> In e l ->
  abs_tab (fst (remove_entry h I e)) = with_pairs (abs_tab h) (a_remove (abs h) (keyf h e)).
Proof.
  intros h I l e T He. destruct (in_split _ _ He) as (l1 & l2 & ->).
  destruct (abs_remove_entry h I l1 l2 e T) as (_ & Ab & Cp & As & _).
  unfold abs_tab, with_pairs. cbn [pairs acap aasort]. rewrite Ab, Cp, As. reflexivity.
Qed.

Lemma abs_moved : forall h I e l l' r, tinv h l -> moved h I e l l' r ->
  tinv (fst r) l' /\ abs (fst r) = map (kvf h) l' /\ cap (fst r) = cap h /\ asort (fst r) = asort h /\
  fresh (fst r) = fresh h /\ ilist (fst r) = ilist h.
Proof.
  intros h I e l l' r T (T' & S & (Mc & Mcap & Mf & Ma & Mi) & _).
  split; [exact T'|split; [eapply abs_same_data; eassumption|auto]].
Qed.

Lemma a_move_to_map : forall h l1 l2 e idx, NoDup (map (keyf h) (l1 ++ e :: l2)) ->
  a_move_to (map (kvf h) (l1 ++ e :: l2)) (keyf h e) idx =
  map (kvf h) (firstn (Nat.min idx (length (l1 ++ l2))) (l1 ++ l2) ++ e :: skipn (Nat.min idx (length (l1 ++ l2))) (l1 ++ l2)).
Proof.
  intros h l1 l2 e idx Hk. unfold a_move_to.
  rewrite (a_get_map_in h (l1 ++ e :: l2) e Hk) by (apply in_elt).
  rewrite (a_remove_map_split h l1 e l2 (keys_split_left h l1 e l2 Hk)).
  rewrite <- kvf_pair. rewrite map_length.
  replace (length (l1 ++ e :: l2) - 1) with (length (l1 ++ l2)) by (rewrite !app_length; cbn [length]; lia).
  apply a_insert_at_map.
Qed.

Lemma l0_move_before_map : forall h l1 l2 p q e f, NoDup (map (keyf h) (l1 ++ e :: l2)) -> l1 ++ l2 = p ++ f :: q ->
  l0_move_before (map (kvf h) (l1 ++ e :: l2)) (keyf h e) (keyf h f) = map (kvf h) (p ++ e :: f :: q).
Proof.
  intros h l1 l2 p q e f Hk E. unfold l0_move_before.
  rewrite (a_get_map_in h (l1 ++ e :: l2) e Hk) by (apply in_elt).
  rewrite (a_remove_map_split h l1 e l2 (keys_split_left h l1 e l2 Hk)). rewrite E.
  assert (Hk2 : NoDup (map (keyf h) (p ++ f :: q))).
  { rewrite <- E. rewrite map_app in Hk |- *. cbn [map] in Hk. apply NoDup_remove_1 in Hk. exact Hk. }
  rewrite (a_index_map_split h p f q 0 (keys_split_left h p f q Hk2)). cbn [Nat.add].
  rewrite <- kvf_pair, a_insert_at_map.
  rewrite firstn_app, firstn_all, Nat.sub_diag, skipn_app, skipn_all, Nat.sub_diag. cbn [firstn skipn app]. rewrite app_nil_r. reflexivity.
Qed.

Lemma l0_move_behind_map : forall h l1 l2 p q e d, NoDup (map (keyf h) (l1 ++ e :: l2)) -> l1 ++ l2 = p ++ d :: q ->
  l0_move_behind (map (kvf h) (l1 ++ e :: l2)) (keyf h e) (keyf h d) = map (kvf h) (p ++ d :: e :: q).
Proof.
  intros h l1 l2 p q e d Hk E. unfold l0_move_behind.
  rewrite (a_get_map_in h (l1 ++ e :: l2) e Hk) by (apply in_elt).
  rewrite (a_remove_map_split h l1 e l2 (keys_split_left h l1 e l2 Hk)). rewrite E.
  assert (Hk2 : NoDup (map (keyf h) (p ++ d :: q))).
  { rewrite <- E. rewrite map_app in Hk |- *. cbn [map] in Hk. apply NoDup_remove_1 in Hk. exact Hk. }
  rewrite (a_index_map_split h p d q 0 (keys_split_left h p d q Hk2)). cbn [Nat.add].
  rewrite <- kvf_pair, a_insert_at_map.
  assert (Es : p ++ d :: q = (p ++ [d]) ++ q) by (rewrite <- app_assoc; reflexivity).
  rewrite Es. replace (S (length p)) with (length (p ++ [d])) by (rewrite app_length; cbn; lia).
  rewrite firstn_app, firstn_all, Nat.sub_diag, skipn_app, skipn_all, Nat.sub_diag. cbn [firstn skipn app]. rewrite app_nil_r.
  rewrite <- app_assoc. reflexivity.
Qed.

(* ------------------------------------------------------------------ MoveIterationEntryToCorrectPosition *)

Lemma last_opt_map : forall A B (g : A -> B) (l : list A), last_opt (map g l) = option_map g (head_opt (rev l)).
Proof. intros. unfold last_opt. rewrite <- map_rev. destruct (rev l); reflexivity. Qed.

Lemma head_opt_map : forall A B (g : A -> B) (l : list A), head_opt (map g l) = option_map g (head_opt l).
Proof. intros A B g [|x l]; reflexivity. Qed.

Lemma repos_fwd_exact : forall var h I l1 l2 e, tinv h (l1 ++ e :: l2) ->
  let kv := kvf h e in
  let gt y := is_gt (cmpv var kv y) in
  exists l', moved h I e (l1 ++ e :: l2) l' (repos_fwd var h I e kv) /\
    map (kvf h) l' =
      if match head_opt (map (kvf h) l2) with Some y => gt y | None => false end then
        if match last_opt (map (kvf h) l2) with Some z => gt z | None => false end
        then map (kvf h) l1 ++ map (kvf h) l2 ++ [kv]
        else map (kvf h) l1 ++ take_while gt (map (kvf h) l2) ++ kv :: drop_while gt (map (kvf h) l2)
      else map (kvf h) l1 ++ kv :: map (kvf h) l2.
Proof.
  intros var h I l1 l2 e T kv gt. pose proof (ti_linked _ _ T) as L.
  assert (GE : forall y, In y l2 -> gt (kvf h y) = gt_ent var h kv y).
  { intros y Hy. symmetry. apply gt_ent_live. apply (lk_live _ _ L). apply in_or_app. right. right. exact Hy. }
  assert (Stay : exists l', moved h I e (l1 ++ e :: l2) l' (h, I) /\ map (kvf h) l' = map (kvf h) l1 ++ kv :: map (kvf h) l2).
  { eexists. split; [apply moved_id; exact T|rewrite map_app; reflexivity]. }
  unfold repos_fwd. rewrite (next_of_suffix h _ l1 e l2 L eq_refl), (lk_tl _ _ L), (ti_cnt _ _ T).
  rewrite head_opt_map, last_opt_map, last_of_app_cons. fold (last_of l2).
  destruct l2 as [|b2 l2']; [exact Stay|]. cbn [head_opt option_map].
  change (is_gt (cmp_ent var h kv b2)) with (gt_ent var h kv b2). rewrite (GE b2 (or_introl eq_refl)).
  destruct (gt_ent var h kv b2) eqn:G2; [|exact Stay].
  rewrite last_of_cons_cons. destruct (last_of (b2 :: l2')) as [tx|] eqn:ET; [|apply last_of_none in ET; discriminate].
  cbn [option_map]. change (is_gt (cmp_ent var h kv tx)) with (gt_ent var h kv tx). rewrite (GE tx (last_of_in _ _ _ ET)).
  destruct (gt_ent var h kv tx).
  - eexists. split; [apply move_back_exact; exact T|]. rewrite !map_app. reflexivity.
  - (* creep forward: the entry goes behind the last d of the maximal run of greater entries *)
    rewrite (take_while_map_in _ _ _ gt (gt_ent var h kv) (b2 :: l2') GE), (drop_while_map_in _ _ _ gt (gt_ent var h kv) (b2 :: l2') GE).
    pose proof (creep_fwd_take var h _ kv (length (l1 ++ e :: b2 :: l2')) (l1 ++ [e]) b2 l2' L) as CF.
    rewrite <- app_assoc in CF. specialize (CF eq_refl). rewrite !app_length in CF. cbn [length] in CF. specialize (CF ltac:(lia) G2).
    rewrite !app_length. cbn [length]. destruct (last_of_split _ _ _ CF) as (s0 & Es0).
    assert (Esplit : l1 ++ b2 :: l2' = (l1 ++ s0) ++ creep_fwd var h kv b2 (length l1 + S (S (length l2'))) :: drop_while (gt_ent var h kv) (b2 :: l2')).
    { rewrite <- app_assoc. f_equal. change (s0 ++ ?d :: ?r) with (s0 ++ [d] ++ r). rewrite app_assoc, <- Es0. symmetry. apply take_drop_while. }
    eexists. split; [apply move_behind_exact; [exact T|exact Esplit]|].
    rewrite Es0, !map_app. cbn [map]. rewrite <- !app_assoc. reflexivity.
Qed.

Lemma reposition_ordered_exact : forall var h I l1 l2 e, tinv h (l1 ++ e :: l2) ->
  exists l', moved h I e (l1 ++ e :: l2) l' (reposition_ordered var h I e) /\
             map (kvf h) l' = l0_reposition_ordered var (map (kvf h) (l1 ++ e :: l2)) (keyf h e).
Proof.
  intros var h I l1 l2 e T.
  pose proof (ti_linked _ _ T) as L. pose proof (ti_keys _ _ T) as Hk.
  assert (Le : live h e) by (apply (lk_live _ _ L); apply in_elt).
  set (kv := kvf h e). set (lt := fun y => is_lt (cmpv var kv y)).
  assert (LE : forall y, In y l1 -> lt (kvf h y) = lt_ent var h kv y).
  { intros y Hy. symmetry. apply lt_ent_live. apply (lk_live _ _ L). apply in_or_app. left. exact Hy. }
  rewrite map_app. cbn [map]. rewrite (kvf_pair h e), l0_reposition_ordered_split.
  2:{ intros y Hy. apply in_map_iff in Hy. destruct Hy as (x & <- & Hx). apply (keys_split_left h l1 e l2 Hk x Hx). }
  cbv zeta. rewrite <- (kvf_pair h e). fold kv. fold lt. rewrite last_opt_map, head_opt_map. fold (last_of l1).
  rewrite reposition_ordered_eq, (kv_of_live h e Le). fold kv.
  rewrite (prev_of_prefix h _ l1 e l2 L eq_refl), (lk_hd _ _ L), (ti_cnt _ _ T).
  destruct (last_of l1) as [b|] eqn:EL; [|apply repos_fwd_exact; exact T]. cbn [option_map].
  change (is_lt (cmp_ent var h kv b)) with (lt_ent var h kv b). change (is_lt (cmpv var kv (kvf h b))) with (lt (kvf h b)).
  rewrite (LE b (last_of_in _ _ _ EL)). destruct (lt_ent var h kv b) eqn:Gb; [|apply repos_fwd_exact; exact T].
  destruct l1 as [|x l1']; [discriminate|]. cbn [app head_opt option_map].
  change (is_lt (cmp_ent var h kv x)) with (lt_ent var h kv x). change (is_lt (cmpv var kv (kvf h x))) with (lt (kvf h x)).
  rewrite (LE x (or_introl eq_refl)). destruct (lt_ent var h kv x).
  - eexists. split; [exact (move_front_exact h I (x :: l1') l2 e T)|]. cbn [map]. rewrite map_app. reflexivity.
  - (* creep back: the entry goes in front of the first f of the maximal run of lesser entries *)
    change (kvf h x :: map (kvf h) l1') with (map (kvf h) (x :: l1')).
    rewrite (suf_of_map_in _ _ _ lt (lt_ent var h kv) (x :: l1') LE), (pre_of_map_in _ _ _ lt (lt_ent var h kv) (x :: l1') LE).
    destruct (last_of_split _ _ _ EL) as (l0 & El0).
    pose proof (creep_back_suf var h _ kv (length ((x :: l1') ++ e :: l2)) l0 b (e :: l2) L) as CB.
    rewrite <- El0 in CB. specialize (CB eq_refl).
    assert (Hlen : length l0 <= length ((x :: l1') ++ e :: l2)) by (rewrite El0, !app_length; lia).
    specialize (CB Hlen Gb).
    destruct (suf_of (lt_ent var h kv) (x :: l1')) as [|f s1] eqn:Es; [discriminate|]. injection CB as Ef.
    replace (creep_back var h kv b (length (x :: l1' ++ e :: l2))) with f by exact Ef.
    assert (Esplit : (x :: l1') ++ l2 = pre_of (lt_ent var h kv) (x :: l1') ++ f :: (s1 ++ l2)).
    { rewrite <- (pre_suf _ (lt_ent var h kv) (x :: l1')) at 1. rewrite Es, <- app_assoc. reflexivity. }
    eexists. split; [exact (move_before_exact h I (x :: l1') l2 _ _ e f T Esplit)|].
    rewrite !map_app. cbn [map]. rewrite map_app. reflexivity.
Qed.

(* ------------------------------------------------------------------ Clear / EnsureSize *)

Lemma abs_empty : forall c f a il, abs (mkHt (PositiveMap.empty node) None None 0 c f a il) = [].
Proof. reflexivity. Qed.

Lemma abs_tab_clear : forall dcap h I r, abs_tab (fst (clear_tab dcap h I r)) = l0_clear dcap (abs_tab h) r.
Proof. intros. unfold clear_tab, l0_clear, abs_tab. cbn. destruct r; reflexivity. Qed.

Lemma abs_congr : forall h h', nodes h' = nodes h -> hd h' = hd h -> cnt h' = cnt h -> abs h' = abs h.
Proof.
  intros h h' En Eh Ec. unfold abs, ids, kvs_of. rewrite Eh, Ec.
  assert (G : forall y, getn h' y = getn h y) by (intros; unfold getn; rewrite En; reflexivity).
  assert (W : forall fuel x, walk h' x fuel = walk h x fuel).
  { induction fuel as [|f IH]; intros x; [reflexivity|]. cbn [walk]. destruct x; [|reflexivity]. f_equal.
    unfold get_next. rewrite G. apply IH. }
  rewrite W. apply flat_map_ext. intros y. unfold kv_of. rewrite G. reflexivity.
Qed.

Lemma abs_with_cap : forall h c, abs (with_cap h c) = abs h.
Proof. intros. apply abs_congr; reflexivity. Qed.

Lemma abs_tab_ensure : forall dcap h I l req sh, tinv h l ->
  abs_tab (fst (fst (ensure_size dcap h I req sh))) = fst (l0_ensure dcap (abs_tab h) req sh) /\
  snd (ensure_size dcap h I req sh) = snd (l0_ensure dcap (abs_tab h) req sh).
Proof.
  intros dcap h I l req sh T. unfold ensure_size, l0_ensure. cbn [pairs acap aasort abs_tab].
  rewrite (abs_length h l T).
  destruct (N.eqb _ (cap h)); [split; reflexivity|].
  destruct (N.eqb _ 0); [split; reflexivity|].
  destruct (N.eqb _ 4294967295); [split; reflexivity|].
  cbn [fst snd]. split; [|reflexivity]. unfold abs_tab. rewrite abs_with_cap. reflexivity.
Qed.

(* ------------------------------------------------------------------ PutAux *)

Lemma reposition_aux_exact : forall var h I l1 l2 e, tinv h (l1 ++ e :: l2) ->
  exists l', moved h I e (l1 ++ e :: l2) l' (reposition_aux var h I e) /\
             map (kvf h) l' = l0_reposition var (map (kvf h) (l1 ++ e :: l2)) (keyf h e).
Proof.
  intros var h I l1 l2 e T. pose proof (reposition_ordered_exact var h I l1 l2 e T) as R.
  unfold reposition_aux, l0_reposition. destruct var; [|exact R|exact R].
  exists (l1 ++ e :: l2). split; [apply moved_id; exact T|reflexivity].
Qed.

Lemma find_id_with_cap : forall h c k l, find_id (with_cap h c) k l = find_id h k l.
Proof. intros h c k. induction l as [|x l IH]; [reflexivity|]. cbn [find_id]. rewrite IH. reflexivity. Qed.

Lemma abs_tab_grown : forall dcap h l, tinv h l ->
  abs_tab (with_cap h (grown_cap h)) =
  (if N.eqb (N.of_nat (length (abs h))) (cap h) then fst (l0_ensure dcap (abs_tab h) (cap h * 2) false) else abs_tab h).
Proof.
  intros dcap h l T. pose proof (grow_step dcap h []) as G. rewrite (abs_length h l T).
  destruct (N.eqb (N.of_nat (cnt h)) (cap h)).
  - rewrite <- (proj1 (abs_tab_ensure dcap h [] l (cap h * 2) false T)), G. reflexivity.
  - injection G as G. rewrite <- G. reflexivity.
Qed.

Lemma abs_tab_put_aux : forall var dcap h I l k v, tinv h l ->
  abs_tab (pa_h (put_aux var dcap h I k v)) = fst (l0_put var dcap (abs_tab h) k v) /\
  snd (put_aux var dcap h I k v) = snd (l0_put var dcap (abs_tab h) k v).
Proof.
  intros var dcap h I l k v T0. unfold put_aux, l0_put. rewrite ensure_allocated_cap.
  replace (if N.eqb (acap (abs_tab h)) 0 then mkT0 (pairs (abs_tab h)) dcap (aasort (abs_tab h)) else abs_tab h)
    with (abs_tab (with_cap h (if N.eqb (cap h) 0 then dcap else cap h)))
    by (unfold abs_tab; rewrite abs_with_cap; cbn; destruct (N.eqb (cap h) 0); reflexivity).
  apply (tinv_with_cap h l (if N.eqb (cap h) 0 then dcap else cap h)) in T0.
  set (h0 := with_cap h _) in *. clearbody h0. rename T0 into T.
  cbn [pairs acap aasort abs_tab].
  rewrite (find_key_get h0 l k T).
  destruct (find_key h0 k) as [e|] eqn:Ef.
  - destruct (find_key_split h0 l k e T Ef) as (l1 & l2 & -> & Hk).
    assert (Hin : In e (l1 ++ e :: l2)) by apply in_elt.
    assert (Le : live h0 e) by (apply (tinv_live _ _ T); exact Hin).
    rewrite (val_of_valf h0 e Le), (kv_of_live h0 e Le). cbn [snd].
    destruct (tinv_set_val h0 _ e v T Hin) as (T1 & _ & Ke & _).
    destruct (reposition_aux_exact var (set_val h0 e v) I l1 l2 e T1) as (l' & Mv & El').
    destruct (reposition_aux var (set_val h0 e v) I e) as [h1 I1] eqn:ER.
    destruct (abs_moved _ _ _ _ _ _ T1 Mv) as (_ & Ab & Hcap & Has & _). cbn [fst] in *.
    unfold pa_h. cbn [fst snd]. split; [|reflexivity].
    unfold abs_tab, with_pairs. cbn [pairs acap aasort]. rewrite Ab, El'.
    destruct (meta_set_val h0 e v) as (_ & Mcap & _ & Ma & _). rewrite Hcap, Has, Mcap, Ma.
    f_equal. rewrite <- (tinv_abs _ _ T1). rewrite (abs_set_val h0 l1 l2 e v T).
    assert (Ek : keyf (set_val h0 e v) e = k) by (unfold keyf; rewrite Ke; exact Hk).
    rewrite Ek, Hk. reflexivity.
  - pose proof (grow_step dcap h0 I) as G. pose proof (abs_tab_grown dcap h0 l T) as A0.
    destruct (if N.eqb (N.of_nat (cnt h0)) _ then _ else _) as [[hg I0] st]. cbn [fst] in G. injection G as -> ->.
    apply (tinv_with_cap h0 l (grown_cap h0)) in T.
    rewrite <- (find_key_with_cap h0 (grown_cap h0)), (tinv_find_key _ l k T) in Ef.
    destruct (abs_insert_new var _ l k v T Ef) as (m1 & m2 & _ & T' & Ab & Hcap & Has & _).
    destruct (alloc_node _ k v) as [h1 e]. cbn [fst snd] in *.
    unfold pa_h. cbn [fst snd]. split; [|reflexivity].
    unfold abs_tab at 1. rewrite Ab, Hcap, Has. unfold with_pairs. rewrite <- A0. reflexivity.
Qed.

Lemma put_aux_key : forall var dcap h I l k v, tinv h l ->
  keyf (pa_h (put_aux var dcap h I k v)) (pa_e (put_aux var dcap h I k v)) = k /\
  exists l', tinv (pa_h (put_aux var dcap h I k v)) l' /\ In (pa_e (put_aux var dcap h I k v)) l'.
Proof.
  intros var dcap h I l k v T0. unfold put_aux. rewrite ensure_allocated_cap.
  apply (tinv_with_cap h l (if N.eqb (cap h) 0 then dcap else cap h)) in T0.
  set (h0 := with_cap h _) in *. clearbody h0. rename T0 into T.
  destruct (find_key h0 k) as [e|] eqn:Ef.
  - destruct (find_key_split h0 l k e T Ef) as (l1 & l2 & -> & Hk).
    assert (Hin : In e (l1 ++ e :: l2)) by apply in_elt.
    destruct (tinv_set_val h0 _ e v T Hin) as (T1 & _ & Ke & _).
    destruct (reposition_aux_exact var (set_val h0 e v) I l1 l2 e T1) as (l' & (T' & S & _ & _) & _).
    destruct (reposition_aux var (set_val h0 e v) I e) as [h1 I1]. unfold pa_h, pa_e. cbn [fst snd] in *.
    split.
    + unfold keyf. rewrite (kvf_same_data _ _ S), Ke. exact Hk.
    + exists l'. split; [exact T'|]. apply (ti_dom _ _ T'). apply S. apply (tinv_live _ _ T1). exact Hin.
  - pose proof (grow_step dcap h0 I) as G.
    destruct (if N.eqb (N.of_nat (cnt h0)) _ then _ else _) as [[hg I0] st]. cbn [fst] in G. injection G as -> ->.
    apply (tinv_with_cap h0 l (grown_cap h0)) in T.
    rewrite <- (find_key_with_cap h0 (grown_cap h0)), (tinv_find_key _ l k T) in Ef.
    destruct (abs_insert_new var _ l k v T Ef) as (m1 & m2 & _ & T' & _ & _ & _ & _ & _ & _ & Kve & _).
    destruct (alloc_node _ k v) as [h1 e]. unfold pa_h, pa_e. cbn [fst snd] in *.
    split; [unfold keyf; rewrite Kve; reflexivity|]. eexists. split; [exact T'|apply in_elt].
Qed.

Lemma ins_id_map : forall h cmp x acc, live h x -> (forall y, In y acc -> live h y) ->
  map (kvf h) (ins_id h cmp x acc) = ins_sorted cmp (kvf h x) (map (kvf h) acc).
Proof.
  intros h cmp x acc Lx. induction acc as [|y r IH]; intros La; [reflexivity|].
  cbn [ins_id map ins_sorted]. rewrite (kv_of_live h x Lx), (kv_of_live h y (La y (or_introl eq_refl))).
  destruct (cmp (kvf h x) (kvf h y)); cbn [map]; try reflexivity; (f_equal; apply IH; intros z Hz; apply La; right; exact Hz).
Qed.

Lemma sort_ids_map : forall h cmp l, (forall y, In y l -> live h y) ->
  map (kvf h) (sort_ids h cmp l) = stable_sort cmp (map (kvf h) l).
Proof.
  intros h cmp l Hl. unfold sort_ids, stable_sort.
  assert (G : forall l acc, (forall y, In y l -> live h y) -> (forall y, In y acc -> live h y) ->
            map (kvf h) (fold_left (fun acc x => ins_id h cmp x acc) l acc)
            = fold_left (fun acc x => ins_sorted cmp x acc) (map (kvf h) l) (map (kvf h) acc)).
  { induction l0 as [|x l0 IH]; intros acc Hl0 Ha; [reflexivity|]. cbn [fold_left map].
    rewrite IH.
    - rewrite ins_id_map; [reflexivity|apply Hl0; left; reflexivity|exact Ha].
    - intros y Hy. apply Hl0. right; exact Hy.
    - intros y Hy. pose proof (ins_id_perm h cmp x acc) as P.
      apply (Permutation_in _ (Permutation_sym P)) in Hy. destruct Hy as [<-|Hy]; [apply Hl0; left; reflexivity|apply Ha; exact Hy]. }
  apply (G l [] Hl). intros y [].
Qed.

Lemma abs_tab_sort_by : forall h l cmp, tinv h l ->
  abs_tab (sort_by h cmp) = with_pairs (abs_tab h) (stable_sort cmp (abs h)) /\ tinv (sort_by h cmp) (sort_ids h cmp l).
Proof.
  intros h l cmp T. destruct (sort_by_spec h l cmp T) as (T' & S & (_ & Mcap & _ & Ma & _)).
  split; [|exact T']. unfold abs_tab, with_pairs. cbn [pairs acap aasort]. rewrite Mcap, Ma. f_equal.
  rewrite (tinv_abs _ _ T'), (tinv_abs _ _ T), <- (sort_ids_map h cmp l (tinv_live _ _ T)).
  apply map_ext. intros y. apply (kvf_same_data _ _ S).
Qed.

Lemma abs_tab_sort_aux : forall var h l, tinv h l ->
  abs_tab (sort_aux var h) = with_pairs (abs_tab h) (l0_sort_aux var (abs h)) /\ exists l', tinv (sort_aux var h) l'.
Proof.
  intros var h l T. unfold sort_aux, l0_sort_aux.
  pose proof (fun v => abs_tab_sort_by h l (cmp_var v) T) as O.
  destruct var; [split; [reflexivity|eexists; exact T]| |]; (split; [apply O|eexists; apply O]).
Qed.

(* ------------------------------------------------------------------ moves against ideal list functions *)

(* [mv] moves the entry holding key k, and its exact effect on the id list is the list function [f0] *)
Definition move_refines (k : Z) (mv : ht -> itab -> positive -> ht * itab) (f0 : amap -> amap) : Prop :=
  forall h I l1 l2 e, tinv h (l1 ++ e :: l2) -> keyf h e = k ->
    exists l', moved h I e (l1 ++ e :: l2) l' (mv h I e) /\ map (kvf h) l' = f0 (map (kvf h) (l1 ++ e :: l2)).

Lemma abs_tab_move : forall k mv f0 h I l e, move_refines k mv f0 -> tinv h l -> In e l -> keyf h e = k ->
  abs_tab (fst (mv h I e)) = with_pairs (abs_tab h) (f0 (abs h)).
Proof.
  intros k mv f0 h I l e Hmv T He Hk. destruct (in_split _ _ He) as (l1 & l2 & ->).
  destruct (Hmv h I l1 l2 e T Hk) as (l' & Mv & El').
  destruct (abs_moved _ _ _ _ _ _ T Mv) as (_ & Ab & Cp & As & _).
  unfold abs_tab, with_pairs. cbn [pairs acap aasort]. rewrite Ab, Cp, As, El', (tinv_abs _ _ T). reflexivity.
Qed.

Lemma abs_tab_put_move : forall var dcap k mv f0 h I l v, move_refines k mv f0 -> tinv h l ->
  let r := put_aux var dcap h I k v in
  let x := fst (l0_put var dcap (abs_tab h) k v) in
  abs_tab (fst (mv (pa_h r) (pa_i r) (pa_e r))) = with_pairs x (f0 (pairs x)).
Proof.
  intros var dcap k mv f0 h I l v Hmv T r x.
  destruct (abs_tab_put_aux var dcap h I l k v T) as [A _]. destruct (put_aux_key var dcap h I l k v T) as (Hk & l' & T' & He).
  rewrite (abs_tab_move k mv f0 _ _ l' _ Hmv T' He Hk). unfold x. rewrite <- A. reflexivity.
Qed.

Lemma mv_front_spec : forall k, move_refines k move_front_aux (fun A => a_move_to A k 0).
Proof.
  intros k h I l1 l2 e T Hk. eexists. split; [apply move_front_exact; exact T|].
  rewrite <- Hk, (a_move_to_map h l1 l2 e 0 (ti_keys _ _ T)). reflexivity.
Qed.

Lemma mv_back_spec : forall k, move_refines k move_back_aux (fun A => a_move_to A k (length A - 1)).
Proof.
  intros k h I l1 l2 e T Hk. eexists. split; [apply move_back_exact; exact T|].
  rewrite <- Hk, (a_move_to_map h l1 l2 e _ (ti_keys _ _ T)).
  rewrite map_length. replace (length (l1 ++ e :: l2) - 1) with (length (l1 ++ l2)) by (rewrite !app_length; cbn [length]; lia).
  rewrite Nat.min_id, firstn_all, skipn_all, <- app_assoc. reflexivity.
Qed.

Lemma mv_pos_spec : forall k idx, move_refines k (fun h I e => move_pos_aux h I e idx) (fun A => a_move_to A k idx).
Proof.
  intros k idx h I l1 l2 e T Hk. eexists. split; [apply move_pos_exact; exact T|].
  rewrite <- Hk, (a_move_to_map h l1 l2 e idx (ti_keys _ _ T)). reflexivity.
Qed.

Lemma mv_repos_spec : forall var k, move_refines k (reposition_aux var) (fun A => l0_reposition var A k).
Proof. intros var k h I l1 l2 e T Hk. rewrite <- Hk. apply reposition_aux_exact. exact T. Qed.

(* moves relative to a second entry f (MoveToBefore / MoveToBehind) *)
Definition move2_refines (aux : ht -> itab -> positive -> positive -> ht * itab) (f0 : amap -> Z -> Z -> amap) : Prop :=
  forall h I l1 l2 e f, tinv h (l1 ++ e :: l2) -> In f (l1 ++ e :: l2) -> f <> e ->
    exists l', moved h I e (l1 ++ e :: l2) l' (aux h I e f) /\
               map (kvf h) l' = f0 (map (kvf h) (l1 ++ e :: l2)) (keyf h e) (keyf h f).

Lemma before_refines : move2_refines move_before_aux l0_move_before.
Proof.
  intros h I l1 l2 e f T Hf Hfe. destruct (in_split _ _ (in_del _ _ _ _ _ Hf Hfe)) as (p & q & Epq).
  eexists. split; [exact (move_before_exact h I l1 l2 p q e f T Epq)|].
  symmetry. apply (l0_move_before_map h l1 l2 p q e f (ti_keys _ _ T) Epq).
Qed.

Lemma behind_refines : move2_refines move_behind_aux l0_move_behind.
Proof.
  intros h I l1 l2 e f T Hf Hfe. destruct (in_split _ _ (in_del _ _ _ _ _ Hf Hfe)) as (p & q & Epq).
  eexists. split; [exact (move_behind_exact h I l1 l2 p q e f T Epq)|].
  symmetry. apply (l0_move_behind_map h l1 l2 p q e f (ti_keys _ _ T) Epq).
Qed.

Lemma eqb_entry_key : forall h l e f, tinv h l -> In e l -> In f l -> Pos.eqb e f = Z.eqb (keyf h e) (keyf h f).
Proof.
  intros h l e f T He Hf. destruct (Pos.eqb_spec e f) as [->|Hn]; [symmetry; apply Z.eqb_refl|].
  symmetry. apply Z.eqb_neq. intro Ek. apply Hn.
  pose proof (find_id_unique h (keyf h e) l e (ti_keys _ _ T) He eq_refl) as U1.
  pose proof (find_id_unique h (keyf h e) l f (ti_keys _ _ T) Hf (eq_sym Ek)) as U2. congruence.
Qed.

Lemma l0_move_before_absent : forall A k k2, a_index (a_remove A k) k2 0 = None -> l0_move_before A k k2 = A.
Proof. intros A k k2 E. unfold l0_move_before. rewrite E. destruct (a_get A k); reflexivity. Qed.
Lemma l0_move_behind_absent : forall A k k2, a_index (a_remove A k) k2 0 = None -> l0_move_behind A k k2 = A.
Proof. intros A k k2 E. unfold l0_move_behind. rewrite E. destruct (a_get A k); reflexivity. Qed.

(* what PutBefore / PutBehind do after PutAux: nothing if the second key is absent or is the first *)
Definition mv_rel (aux : ht -> itab -> positive -> positive -> ht * itab) (k2 : Z) (h : ht) (I : itab) (e : positive) : ht * itab :=
  match find_key h k2 with
  | Some f => if Pos.eqb e f then (h, I) else aux h I e f
  | None => (h, I)
  end.

Lemma mv_rel_spec : forall aux f0 k k2, move2_refines aux f0 ->
  (forall (A : amap), a_index (a_remove A k) k2 0 = None -> f0 A k k2 = A) ->
  move_refines k (mv_rel aux k2) (fun A => if Z.eqb k k2 then A else f0 A k k2).
Proof.
  intros aux f0 k k2 Haux Habs h I l1 l2 e T Hk. unfold mv_rel.
  assert (He : In e (l1 ++ e :: l2)) by apply in_elt.
  destruct (find_key h k2) as [f|] eqn:Ef.
  - destruct (find_key_some_in h _ k2 f T Ef) as [Hf Hkf].
    rewrite (eqb_entry_key h _ e f T He Hf), Hk, Hkf.
    destruct (Z.eqb k k2) eqn:E; [eexists; split; [apply moved_id; exact T|reflexivity]|].
    subst k k2. apply Haux; [exact T|exact Hf|]. intros ->. rewrite Z.eqb_refl in E. discriminate.
  - eexists. split; [apply moved_id; exact T|]. destruct (Z.eqb k k2); [reflexivity|]. symmetry. apply Habs.
    rewrite <- Hk, (a_remove_map_split h l1 e l2 (keys_split_left h l1 e l2 (ti_keys _ _ T))).
    apply a_index_map_none. intros y Hy. apply (find_id_none h k2 (l1 ++ e :: l2)); [rewrite <- (tinv_find_key h _ k2 T); exact Ef|].
    apply in_ins. exact Hy.
Qed.

(* ------------------------------------------------------------------ CopyFromAux *)

Lemma abs_tab_copy_from : forall var dcap h I l src srccap cf, tinv h l -> NoDup (map fst src) ->
  abs_tab (fst (fst (copy_from var dcap h I src srccap cf))) = fst (l0_copy_from var dcap (abs_tab h) src cf) /\
  snd (copy_from var dcap h I src srccap cf) = snd (l0_copy_from var dcap (abs_tab h) src cf).
Proof.
  intros var dcap h I l src srccap cf T Hnd. unfold copy_from, l0_copy_from.
  assert (C : exists h1 I1 l1, (if cf then clear_tab dcap h I ((length src =? 0) && (dcap <? cap h)%N) else (h, I)) = (h1, I1) /\
               tinv h1 l1 /\ abs_tab h1 = (if cf then l0_clear dcap (abs_tab h) ((length src =? 0) && (dcap <? acap (abs_tab h))%N) else abs_tab h)).
  { destruct cf.
    - eexists _, _, []. split; [reflexivity|split; [apply tinv_empty|]]. apply (abs_tab_clear dcap h I).
    - exists h, I, l. auto. }
  destruct C as (h1 & I1 & l1 & -> & T1 & A1). rewrite <- A1.
  destruct src as [|kv src']; [split; reflexivity|].
  destruct (abs_tab_ensure dcap h1 I1 l1 (N.of_nat (cnt h1 + length (kv :: src'))) false T1) as [A2 St].
  cbn [pairs abs_tab]. rewrite (abs_length h1 l1 T1).
  assert (T2 : exists l2, tinv (fst (fst (ensure_size dcap h1 I1 (N.of_nat (cnt h1 + length (kv :: src'))) false))) l2).
  { unfold ensure_size. destruct (N.eqb _ (cap h1)); [eexists; exact T1|]. destruct (N.eqb _ 0); [eexists; apply tinv_empty|].
    destruct (N.eqb _ 4294967295); [eexists; exact T1|]. eexists. cbn [fst]. apply tinv_with_cap. exact T1. }
  destruct (ensure_size dcap h1 I1 (N.of_nat (cnt h1 + length (kv :: src'))) false) as [[h2 I2] st].
  destruct (l0_ensure dcap (abs_tab h1) (N.of_nat (cnt h1 + length (kv :: src'))) false) as [x2 st0].
  cbn [fst snd] in *. subst st0. destruct T2 as (l2 & T2).
  destruct (st =? 0); [|split; [exact A2|reflexivity]]. cbn [fst snd]. split; [|reflexivity].
  unfold copy_from_aux.
  destruct (copy_fold_spec (cnt h2 =? 0) (kv :: src') h2 l2 T2 Hnd) as (((l3 & T3) & _) & A3 & C3 & S3).
  { intros E e He. apply Nat.eqb_eq in E. rewrite (ti_cnt _ _ T2) in E. destruct l2; [destruct He|discriminate]. }
  rewrite (proj1 (abs_tab_sort_aux var _ l3 T3)). unfold abs_tab, with_pairs. cbn [pairs acap aasort]. rewrite A3, C3, S3, <- A2.
  cbn [pairs acap aasort abs_tab]. rewrite (abs_length h2 l2 T2). reflexivity.
Qed.

Lemma forallb_ext' : forall A (f g : A -> bool) l, (forall x, f x = g x) -> forallb f l = forallb g l.
Proof. intros A f g l H. induction l as [|x l IH]; [reflexivity|]. cbn. rewrite H, IH. reflexivity. Qed.

(* ------------------------------------------------------------------ IsEqualTo *)

Lemma abs_equal_tabs : forall a b la lb ordered, tinv a la -> tinv b lb ->
  equal_tabs a b ordered = l0_equal (abs a) (abs b) ordered.
Proof.
  intros a b la lb ordered Ta Tb. unfold equal_tabs, l0_equal.
  rewrite (abs_length a la Ta), (abs_length b lb Tb). destruct (negb (cnt a =? cnt b)); [reflexivity|]. destruct ordered; [reflexivity|].
  apply forallb_ext'. intros kv. rewrite (find_key_get b lb (fst kv) Tb). destruct (find_key b (fst kv)); reflexivity.
Qed.

(* ------------------------------------------------------------------ Remove(table) *)

Lemma filter_all_true : forall A (f : A -> bool) l, (forall x, In x l -> f x = true) -> filter f l = l.
Proof. intros A f. induction l as [|x l IH]; intros H; [reflexivity|]. cbn. rewrite (H x (or_introl eq_refl)). f_equal. apply IH. intros y Hy. apply H. right; exact Hy. Qed.


Lemma a_remove_filter : forall (A : amap) k, NoDup (map fst A) ->
  a_remove A k = filter (fun kv => negb (Z.eqb (fst kv) k)) A.
Proof.
  induction A as [|[k' v'] A IH]; intros k Hnd; [reflexivity|]. cbn [a_remove filter fst map] in *.
  inversion Hnd as [|? ? Hk Hnd']; subst. destruct (Z.eqb k' k) eqn:E; cbn [negb].
  - apply Z.eqb_eq in E; subst. symmetry. apply filter_all_true. intros [k2 v2] Hin. cbn [fst].
    apply negb_true_iff. apply Z.eqb_neq. intro; subst. apply Hk. change k with (fst (k, v2)). apply in_map. exact Hin.
  - f_equal. apply IH. exact Hnd'.
Qed.

Lemma nodup_keys_filter : forall (A : amap) f, NoDup (map fst A) -> NoDup (map fst (filter f A)).
Proof.
  induction A as [|kv A IH]; intros f Hnd; [constructor|]. cbn [filter map] in *. inversion Hnd as [|? ? Hk Hnd']; subst.
  destruct (f kv); [|apply IH; exact Hnd']. cbn [map]. constructor; [|apply IH; exact Hnd'].
  intro Hin. apply Hk. apply in_map_iff in Hin. destruct Hin as (x & Ex & Hx). apply filter_In in Hx. rewrite <- Ex. apply in_map. apply Hx.
Qed.

Lemma fold_a_remove_filter : forall ks (A : amap), NoDup (map fst A) ->
  fold_left a_remove ks A = filter (fun kv => negb (existsb (Z.eqb (fst kv)) ks)) A.
Proof.
  induction ks as [|k ks IH]; intros A Hnd.
  - cbn. symmetry. apply filter_all_true. reflexivity.
  - cbn [fold_left existsb]. rewrite a_remove_filter by exact Hnd. rewrite IH by (apply nodup_keys_filter; exact Hnd).
    clear. induction A as [|kv A IHA]; [reflexivity|]. cbn [filter]. destruct (Z.eqb (fst kv) k) eqn:E; cbn [negb orb].
    + exact IHA.
    + cbn [filter]. destruct (existsb (Z.eqb (fst kv)) ks); cbn [negb]; [exact IHA|f_equal; exact IHA].
Qed.

Lemma is_some_a_get : forall (other : amap) k, is_some (a_get other k) = existsb (Z.eqb k) (map fst other).
Proof.
  induction other as [|[k' v'] other IH]; intros k; [reflexivity|]. cbn [a_get map existsb fst].
  rewrite (Z.eqb_sym k k'). destruct (Z.eqb k' k); [reflexivity|apply IH].
Qed.

Lemma abs_tab_remove_keys : forall other h I l, tinv h l ->
  let r := remove_keys h I (map fst other) in
  let keep := filter (fun kv => negb (is_some (a_get other (fst kv)))) (abs h) in
  abs_tab (fst (fst r)) = with_pairs (abs_tab h) keep /\ snd r = length (abs h) - length keep.
Proof.
  intros other. generalize (map fst other) (fun k => is_some_a_get other k). intros ks Hks. unfold remove_keys.
  assert (G : forall ks h0 I0 c0 l0, tinv h0 l0 ->
     let r := fold_left (fun '(h, J, c) k => match find_key h k with
                                 | Some e => let '(h1, I1) := remove_entry h J e in (h1, I1, S c)
                                 | None => (h, J, c) end) ks (h0, I0, c0) in
     (exists l', tinv (fst (fst r)) l') /\
     abs (fst (fst r)) = fold_left a_remove ks (abs h0) /\ snd r + length (abs (fst (fst r))) = c0 + length (abs h0) /\
     cap (fst (fst r)) = cap h0 /\ asort (fst (fst r)) = asort h0).
  { induction ks0 as [|k ks0 IH]; intros h0 I0 c0 l0 T0.
    - cbn. split; [eexists; exact T0|]. repeat split.
    - cbn [fold_left]. destruct (find_key h0 k) as [e|] eqn:Ef.
      + destruct (find_key_split h0 l0 k e T0 Ef) as (l1 & l2 & -> & Hk).
        destruct (abs_remove_entry h0 I0 l1 l2 e T0) as (T1 & A1 & C1 & S1 & _).
        destruct (remove_entry h0 I0 e) as [h1 I1]. cbn [fst] in *.
        specialize (IH h1 I1 (S c0) _ T1). cbn zeta in IH. destruct IH as (HT & A & C & Cp & As).
        split; [exact HT|split; [rewrite A, A1, Hk; reflexivity|split; [|split; congruence]]].
        rewrite C. rewrite (tinv_abs _ _ T0), (tinv_abs _ _ T1), !map_length, !app_length. cbn [length]. lia.
      + specialize (IH h0 I0 c0 l0 T0). cbn zeta in IH. destruct IH as (HT & A & C & Cp & As).
        split; [exact HT|split; [|auto]].
        rewrite A. f_equal. rewrite (tinv_abs _ _ T0). symmetry. apply a_remove_map_none.
        apply find_id_none. rewrite <- (tinv_find_key h0 l0 k T0). exact Ef. }
  intros h I l T. destruct (G ks h I 0 l T) as (_ & B & C & D & E). cbn zeta.
  assert (Ef : fold_left a_remove ks (abs h) = filter (fun kv => negb (is_some (a_get other (fst kv)))) (abs h)).
  { rewrite (fold_a_remove_filter _ _ (abs_nodup_keys _ l T)). apply filter_ext. intros kv. rewrite Hks. reflexivity. }
  rewrite <- Ef, <- B. split; [|lia]. unfold abs_tab, with_pairs. cbn [pairs acap aasort]. rewrite D, E. reflexivity.
Qed.

(* ------------------------------------------------------------------ Intersect(table) *)

Lemma remove_entry_kvf : forall h I l1 l2 e, tinv h (l1 ++ e :: l2) ->
  forall y, y <> e -> kvf (fst (remove_entry h I e)) y = kvf h y.
Proof.
  intros h I l1 l2 e T y Hy. unfold remove_entry, remove_iter_entry. cbn [fst].
  destruct (tinv_remove_entry h l1 l2 e T) as (_ & _ & _ & Kv & _). apply Kv. exact Hy.
Qed.

Lemma abs_tab_intersect_ids : forall other h I l, tinv h l ->
  let r := intersect_ids h I other (ids h) in
  let keep := filter (fun kv => is_some (a_get other (fst kv))) (abs h) in
  abs_tab (fst (fst r)) = with_pairs (abs_tab h) keep /\ snd r = length (abs h) - length keep.
Proof.
  intros other. unfold intersect_ids.
  set (P := fun kv : Z * Z => is_some (a_get other (fst kv))).
  assert (G : forall rest kept h0 I0 c0, tinv h0 (kept ++ rest) ->
     let r := fold_left (fun '(h, J, c) e => match key_of h e with
                                 | Some k => match a_get other k with
                                             | Some _ => (h, J, c)
                                             | None => let '(h1, I1) := remove_entry h J e in (h1, I1, S c)
                                             end
                                 | None => (h, J, c) end) rest (h0, I0, c0) in
     (exists l', tinv (fst (fst r)) l') /\
     abs (fst (fst r)) = map (kvf h0) kept ++ filter P (map (kvf h0) rest) /\
     snd r + length (abs (fst (fst r))) = c0 + length (kept ++ rest) /\
     cap (fst (fst r)) = cap h0 /\ asort (fst (fst r)) = asort h0).
  { induction rest as [|e rest IH]; intros kept h0 I0 c0 T0.
    - cbn [fold_left fst snd map filter]. rewrite app_nil_r in *. split; [eexists; exact T0|].
      rewrite (tinv_abs _ _ T0), map_length. rewrite !app_nil_r. split; [reflexivity|split; [reflexivity|split; reflexivity]].
    - cbn [fold_left].
      assert (Le : live h0 e) by (apply (tinv_live _ _ T0); apply in_elt).
      rewrite (key_of_keyf h0 e Le). cbn [map filter].
      assert (Pe : P (kvf h0 e) = is_some (a_get other (keyf h0 e))) by (unfold P, keyf; reflexivity).
      rewrite Pe. clear Pe.
      destruct (a_get other (keyf h0 e)) eqn:Eg; cbn [is_some].
      + assert (T0' : tinv h0 ((kept ++ [e]) ++ rest)) by (rewrite <- app_assoc; exact T0).
        specialize (IH (kept ++ [e]) h0 I0 c0 T0'). cbn zeta in IH. destruct IH as (HT & A & C & Cp & As).
        split; [exact HT|split; [|split; [|auto]]].
        * rewrite A, map_app, <- app_assoc. reflexivity.
        * rewrite C, <- app_assoc. reflexivity.
      + destruct (abs_remove_entry h0 I0 kept rest e T0) as (T1 & _ & C1 & S1 & _).
        pose proof (remove_entry_kvf h0 I0 kept rest e T0) as Kv.
        destruct (remove_entry h0 I0 e) as [h1 I1]. cbn [fst] in *.
        specialize (IH kept h1 I1 (S c0) T1). cbn zeta in IH. destruct IH as (HT & A & C & Cp & As).
        pose proof (tinv_nodup _ _ T0) as Hnd. destruct (nodup_split_notin _ _ _ Hnd) as [Hn1 Hn2].
        split; [exact HT|split; [|split; [|split; congruence]]].
        * rewrite A. f_equal; [|f_equal]; apply map_ext_in; intros y Hy; apply Kv; intro; subst; contradiction.
        * rewrite C, !app_length. cbn [length]. lia. }
  intros h I l T. rewrite (tinv_ids h l T). destruct (G l [] h I 0 T) as (_ & B & C & D & E). cbn zeta.
  cbn [app map Nat.add] in B, C. rewrite B in C. subst P.
  unfold abs_tab, with_pairs. cbn [pairs acap aasort]. rewrite D, E, B, (tinv_abs _ _ T), map_length. split; [reflexivity|lia].
Qed.
