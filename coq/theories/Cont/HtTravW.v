(* C09 -- traversal theory.  Table level: a relation [tcalm] between (list, fresh counter, iterator)
   before and after a table function that says: nothing the iterator still had to visit is lost
   unless it was removed, and nothing comes back; [cstep], a step on one table that is calm for all
   its iterators.  World level: pending entries of an iterator, [calm_rel], and what a step has to
   do for one designated iterator ([keeps]). *)
From Coq Require Import List Arith ZArith NArith PArith Bool Lia FMapPositive Permutation.
From Muscle Require Import Cont.HtModel Cont.HtStep Cont.HtIdeal Cont.HtLemmas Cont.HtRepr Cont.HtWalk Cont.HtIters
                           Cont.HtTable Cont.HtMoves Cont.HtPut Cont.HtExact Cont.HtPend Cont.HtRefTab
                           Cont.HtInv Cont.HtSafe Cont.HtSwap.
Import ListNotations.

(* fresh ids only grow; an entry of l' is an entry of l or a fresh one; what was pending and is still
   in the list is still pending; what is pending afterwards was pending or is fresh; same direction *)
Record tcalm (l : list positive) (f : positive) (it : iter) (l' : list positive) (f' : positive) (it' : iter) : Prop := mkTcalm {
  tc_fresh : (f <= f')%positive;
  tc_new : forall n, In n l' -> In n l \/ (f <= n)%positive;
  tc_keep : forall n, In n (pend l it) -> In n l' -> In n (pend l' it');
  tc_res : forall n, In n (pend l' it') -> In n (pend l it) \/ (f <= n)%positive;
  tc_bw : ibw it' = ibw it }.

Lemma tcalm_refl : forall l f it, tcalm l f it l f it.
Proof. intros. constructor; auto. apply Pos.le_refl. Qed.

Lemma pend_incl : forall l it n, In n (pend l it) -> In n l \/ icookie it = Some n.
Proof.
  intros l it n H. unfold pend in H. destruct (icookie it) as [c|]; [|destruct H].
  apply in_app_or in H. destruct H as [H|H].
  - destruct (iscr it); [|destruct H]. destruct H as [<-|[]]. right; reflexivity.
  - left. eapply rest_of_incl; exact H.
Qed.

Lemma tcalm_trans : forall l0 f0 it0 l1 f1 it1 l2 f2 it2,
  (forall n, In n l0 -> (n < f0)%positive) -> (forall c, icookie it0 = Some c -> In c l0) ->
  tcalm l0 f0 it0 l1 f1 it1 -> tcalm l1 f1 it1 l2 f2 it2 -> tcalm l0 f0 it0 l2 f2 it2.
Proof.
  intros l0 f0 it0 l1 f1 it1 l2 f2 it2 B0 C0 [F1 N1 K1 R1 W1] [F2 N2 K2 R2 W2]. constructor.
  - eapply Pos.le_trans; eassumption.
  - intros n Hn. destruct (N2 n Hn) as [H|H]; [apply N1; exact H|right; eapply Pos.le_trans; eassumption].
  - intros n Hp Hn2. apply K2; [|exact Hn2]. apply K1; [exact Hp|].
    destruct (N2 n Hn2) as [H|H]; [exact H|]. exfalso.
    assert (Hl0 : In n l0) by (destruct (pend_incl l0 it0 n Hp) as [H0|H0]; [exact H0|apply C0; exact H0]).
    pose proof (B0 n Hl0). lia.
  - intros n Hn. destruct (R2 n Hn) as [H|H]; [apply R1; exact H|right; eapply Pos.le_trans; eassumption].
  - congruence.
Qed.

Lemma subseq_moved_cookie : forall h l1 l2 e bw, linked h (l1 ++ e :: l2) ->
  subseq h (Some e) bw = moved_cookie bw l1 l2.
Proof.
  intros h l1 l2 e bw L. unfold subseq, moved_cookie. destruct bw.
  - apply (prev_of_prefix h _ l1 e l2 L eq_refl).
  - apply (next_of_suffix h _ l1 e l2 L eq_refl).
Qed.

Lemma tcalm_remove : forall h l1 l2 e f it, linked h (l1 ++ e :: l2) ->
  (forall c, icookie it = Some c -> In c (l1 ++ e :: l2)) ->
  tcalm (l1 ++ e :: l2) f it (l1 ++ l2) f (patch_iter h e it).
Proof.
  intros h l1 l2 e f it L Hc. pose proof (lk_nodup _ _ L) as Hnd. destruct (nodup_split_notin _ _ _ Hnd) as [H1 H2].
  assert (Hsub : forall n, In n (l1 ++ l2) -> In n (l1 ++ e :: l2) /\ n <> e).
  { intros n Hn. apply in_app_or in Hn. split; [apply in_or_app; destruct Hn; [left|right; right]; assumption|intro; subst; destruct Hn; contradiction]. }
  unfold patch_iter. destruct (opt_pos_eqb (icookie it) (Some e)) eqn:Ec.
  - apply opt_pos_eqb_true in Ec. rewrite Ec, (subseq_moved_cookie h l1 l2 e (ibw it) L).
    set (it' := mkIter (iown it) (moved_cookie (ibw it) l1 l2) (ibw it) (inoreg it) (match iscr it with Some s => Some s | None => kv_of h e end)).
    assert (P' : forall n, In n (pend (l1 ++ l2) it') <-> In n (rest_of (ibw it) (l1 ++ e :: l2) e)).
    { apply (pend_after_fixup l1 l2 e it' Hnd eq_refl). cbn [iscr it']. destruct (iscr it); [discriminate|].
      rewrite (kv_of_live h e (lk_live _ _ L e (in_elt e l1 l2))). discriminate. }
    constructor; cbn [ibw]; [apply Pos.le_refl| | | |reflexivity].
    + intros n Hn. left. apply Hsub. exact Hn.
    + intros n Hp Hn. apply P'. unfold pend in Hp. rewrite Ec in Hp. apply in_app_or in Hp. destruct Hp as [Hp|Hp]; [|exact Hp].
      destruct (iscr it); [|destruct Hp]. destruct Hp as [<-|[]]. exfalso. destruct (Hsub e Hn) as [_ Hne]. congruence.
    + intros n Hn. left. apply P' in Hn. unfold pend. rewrite Ec. apply in_or_app. right. exact Hn.
  - apply opt_pos_eqb_false in Ec.
    assert (Hcl : forall c, icookie it = Some c -> In c (l1 ++ l2)).
    { intros c Ek. specialize (Hc c Ek). apply in_app_or in Hc. apply in_or_app.
      destruct Hc as [Hc|[Hc|Hc]]; [left; exact Hc|congruence|right; exact Hc]. }
    constructor; [apply Pos.le_refl| | | |reflexivity].
    + intros n Hn. left. apply Hsub. exact Hn.
    + intros n Hp Hn. destruct (pend_mono _ (l1 ++ l2) it (fun n => n = e) (fun c Ek => proj2 (rest_insert (ibw it) l1 l2 e c Hnd (Hcl c Ek))) n Hp) as [H| ->];
        [exact H|destruct (proj2 (Hsub e Hn) eq_refl)].
    + intros n Hn. apply (pend_mono (l1 ++ l2) (l1 ++ e :: l2) it (fun n => (f <= n)%positive)); [|exact Hn].
      intros c Ek n0 Hn0. left. apply (proj1 (rest_insert (ibw it) l1 l2 e c Hnd (Hcl c Ek))). exact Hn0.
Qed.

Lemma tcalm_insert : forall m1 m2 e it, NoDup (m1 ++ e :: m2) ->
  (forall c, icookie it = Some c -> In c (m1 ++ m2)) ->
  tcalm (m1 ++ m2) e it (m1 ++ e :: m2) (Pos.succ e) it.
Proof.
  intros m1 m2 e it Hnd Hc. constructor; [lia| | | |reflexivity].
  - intros n Hn. apply in_app_or in Hn. destruct Hn as [Hn|[<-|Hn]]; [left; apply in_or_app; left; exact Hn|right; apply Pos.le_refl|left; apply in_or_app; right; exact Hn].
  - intros n Hp _. destruct (pend_mono _ (m1 ++ e :: m2) it (fun _ => False) (fun c Ek n0 Hn0 => or_introl (proj1 (rest_insert (ibw it) m1 m2 e c Hnd (Hc c Ek)) n0 Hn0)) n Hp) as [H|[]]. exact H.
  - intros n Hn. destruct (pend_mono _ (m1 ++ m2) it (fun n => n = e) (fun c Ek => proj2 (rest_insert (ibw it) m1 m2 e c Hnd (Hc c Ek))) n Hn) as [H| ->];
      [left; exact H|right; apply Pos.le_refl].
Qed.

Lemma abs_remove_entry_ids : forall h I l1 l2 e, tinv h (l1 ++ e :: l2) ->
  tinv (fst (remove_entry h I e)) (l1 ++ l2) /\ fresh (fst (remove_entry h I e)) = fresh h /\
  snd (remove_entry h I e) = patch_all h e I.
Proof.
  intros h I l1 l2 e T. unfold remove_entry, remove_iter_entry. cbn [fst snd].
  destruct (tinv_remove_entry h l1 l2 e T) as (T' & _ & _ & _ & _ & _ & Hf & _). auto.
Qed.

Definition tscalm (t : nat) (h : ht) (I : itab) (h' : ht) (I' : itab) : Prop :=
  forall i it, geti I i = Some it -> iown it = Some t ->
    exists it', geti I' i = Some it' /\ inoreg it' = inoreg it /\
      ((iown it' = Some t /\ tcalm (ids h) (fresh h) it (ids h') (fresh h') it') \/
       (iown it' = None /\ icookie it' = None)).

Lemma TL_bounds : forall t h I, TL t h I ->
  (forall n, In n (ids h) -> (n < fresh h)%positive) /\
  (forall i it c, geti I i = Some it -> iown it = Some t -> icookie it = Some c -> In c (ids h)).
Proof.
  intros t h I HTL. destruct (tl_tinv _ _ _ HTL) as (l & T). rewrite (tinv_ids h l T). split.
  - intros n Hn. apply (ti_fresh _ _ T). apply (lk_live _ _ (ti_linked _ _ T)). exact Hn.
  - intros i it c Hg O Hc. destruct (tl_own _ _ _ HTL i it Hg O) as [_ B]. destruct (B c Hc) as [_ L]. apply (ti_dom _ _ T). exact L.
Qed.

Lemma tscalm_trans : forall t h0 I0 h1 I1 h2 I2, TL t h0 I0 -> frame t I1 I2 ->
  tscalm t h0 I0 h1 I1 -> tscalm t h1 I1 h2 I2 -> tscalm t h0 I0 h2 I2.
Proof.
  intros t h0 I0 h1 I1 h2 I2 HTL0 F12 S01 S12 i it Hg O.
  destruct (TL_bounds t h0 I0 HTL0) as [B0 C0].
  destruct (S01 i it Hg O) as (it1 & Hg1 & R1 & [[O1 C1]|[O1 K1]]).
  - destruct (S12 i it1 Hg1 O1) as (it2 & Hg2 & R2 & [[O2 C2]|[O2 K2]]).
    + exists it2. split; [exact Hg2|split; [congruence|left; split; [exact O2|]]].
      eapply tcalm_trans; [exact B0|intros c Hc; eapply C0; eassumption|exact C1|exact C2].
    + exists it2. split; [exact Hg2|split; [congruence|right; auto]].
  - exists it1. split; [|split; [exact R1|right; auto]]. apply (fr_other _ _ _ F12 i it1 Hg1). rewrite O1. discriminate.
Qed.

Lemma tscalm_insert : forall t h I h' m1 m2, TL t h I -> ids h = m1 ++ m2 -> ids h' = m1 ++ fresh h :: m2 ->
  fresh h' = Pos.succ (fresh h) -> tscalm t h I h' I.
Proof.
  intros t h I h' m1 m2 HTL E E' F i it Hg O. exists it. split; [exact Hg|split; [reflexivity|left; split; [exact O|]]].
  destruct (TL_bounds t h I HTL) as [B C]. rewrite E, E', F. apply tcalm_insert.
  - destruct (tl_tinv _ _ _ HTL) as (l & T). pose proof (lk_nodup _ _ (ti_linked _ _ T)) as Hnd. rewrite <- (tinv_ids h l T), E in Hnd.
    apply nodup_insert_mid; [exact Hnd|]. intro Hin. rewrite <- E in Hin. pose proof (B _ Hin) as Hlt. lia.
  - intros c Hc. rewrite <- E. eapply C; eassumption.
Qed.

Lemma tscalm_same : forall t h I h', ids h' = ids h -> fresh h' = fresh h -> tscalm t h I h' I.
Proof.
  intros t h I h' E F i it Hg O. exists it. split; [exact Hg|split; [reflexivity|left; split; [exact O|]]]. rewrite E, F. apply tcalm_refl.
Qed.

(* the fix-up loops: every registered iterator of t gets f, the others (they have no cookie) stay *)
Lemma tscalm_map_its : forall t h I h' f, TL t h I -> (fresh h <= fresh h')%positive ->
  (forall n, In n (ids h') -> In n (ids h) \/ (fresh h <= n)%positive) ->
  (forall it, iown it = Some t -> (forall c, icookie it = Some c -> In c (ids h)) ->
     inoreg (f it) = inoreg it /\
     ((iown (f it) = Some t /\ tcalm (ids h) (fresh h) it (ids h') (fresh h') (f it)) \/
      (iown (f it) = None /\ icookie (f it) = None))) ->
  tscalm t h I h' (map_its f (ilist h) I).
Proof.
  intros t h I h' f HTL Fr New Hf i it Hg O. destruct (TL_bounds t h I HTL) as [_ C].
  destruct (in_dec Nat.eq_dec i (ilist h)) as [Hin|Hn].
  - rewrite map_its_in by (try apply (tl_nodup _ _ _ HTL); assumption). rewrite Hg. cbn [option_map].
    exists (f it). split; [reflexivity|]. apply Hf; [exact O|]. intros c Hc. apply (C i it c Hg O Hc).
  - rewrite map_its_notin by exact Hn. exists it. split; [exact Hg|split; [reflexivity|left; split; [exact O|]]].
    assert (Hk : icookie it = None).
    { destruct (tl_own _ _ _ HTL i it Hg O) as [A Bc]. destruct (icookie it) as [c|]; [|reflexivity].
      destruct (Bc c eq_refl) as [R _]. destruct (Hn (A R)). }
    constructor; [exact Fr|exact New| | |reflexivity]; intros n Hp; unfold pend in Hp; rewrite Hk in Hp; destruct Hp.
Qed.

Lemma ids_congr : forall h h', nodes h' = nodes h -> hd h' = hd h -> cnt h' = cnt h -> ids h' = ids h.
Proof.
  intros h h' En Eh Ec. unfold ids. rewrite Eh, Ec.
  assert (G : forall y, getn h' y = getn h y) by (intros; unfold getn; rewrite En; reflexivity).
  assert (W : forall fuel x, walk h' x fuel = walk h x fuel).
  { induction fuel as [|f IH]; intros x; [reflexivity|]. cbn [walk]. destruct x; [|reflexivity]. f_equal.
    unfold get_next. rewrite G. apply IH. }
  apply W.
Qed.

Record cstep (t : nat) (h : ht) (I : itab) (r : ht * itab) : Prop := mkCstep {
  cs_from : TL t h I;
  cs_ok : okstep t I r;
  cs_calm : tscalm t h I (fst r) (snd r) }.

Section Cstep.
Variable t : nat.

Lemma cstep_id : forall h I, TL t h I -> cstep t h I (h, I).
Proof.
  intros h I HTL. split; [exact HTL|apply okstep_id; exact HTL|].
  intros i it Hg O. exists it. split; [exact Hg|split; [reflexivity|left; split; [exact O|apply tcalm_refl]]].
Qed.

Lemma cstep_trans : forall h I h1 I1 r, cstep t h I (h1, I1) -> cstep t h1 I1 r -> cstep t h I r.
Proof.
  intros h I h1 I1 r [HTL O1 S1] [_ O2 S2]. split; [exact HTL|eapply okstep_trans; eassumption|].
  eapply tscalm_trans; [exact HTL|apply O2|exact S1|exact S2].
Qed.

Lemma cstep_same : forall h I h', TL t h I -> TL t h' I -> ids h' = ids h -> fresh h' = fresh h -> cstep t h I (h', I).
Proof. intros h I h' HTL HTL' E F. split; [exact HTL|apply okstep_id; exact HTL'|apply tscalm_same; assumption]. Qed.

Lemma cstep_remove_entry : forall h I e, TL t h I -> live h e -> cstep t h I (remove_entry h I e).
Proof.
  intros h I e HTL Le. destruct (tl_tinv _ _ _ HTL) as (l & T).
  destruct (in_split _ _ (ti_dom _ _ T e Le)) as (l1 & l2 & ->).
  split; [exact HTL|pose proof (remove_entry_TL t h I e HTL Le) as R; destruct (remove_entry h I e); exact R|].
  destruct (abs_remove_entry_ids h I l1 l2 e T) as (T' & Hf & Es). rewrite Es, patch_all_eq.
  apply tscalm_map_its; [exact HTL|rewrite Hf; apply Pos.le_refl| |]; rewrite (tinv_ids _ _ T'), (tinv_ids _ _ T).
  - intros n Hn. left. apply in_app_or in Hn. apply in_or_app. destruct Hn; [left|right; right]; assumption.
  - intros it O Ck. destruct (patch_iter_own h e it) as (A & B & _). split; [exact B|left; split; [congruence|]].
    rewrite Hf. apply tcalm_remove; [apply T|exact Ck].
Qed.

(* Clear, destruction, EnsureSize(0): an empty table, every registered iterator detached *)
Lemma cstep_emptied : forall h I c a, TL t h I ->
  cstep t h I (mkHt (PositiveMap.empty node) None None 0 c (fresh h) a [], detach_all h I).
Proof.
  intros h I c a HTL. split; [exact HTL|apply emptied_ok; exact HTL|]. cbn [fst snd]. rewrite detach_all_eq.
  apply tscalm_map_its; [exact HTL|apply Pos.le_refl|intros n []|].
  intros it _ _. split; [reflexivity|right; split; reflexivity].
Qed.

Lemma cstep_ensure_size : forall dcap h I req sh, TL t h I -> cstep t h I (fst (ensure_size dcap h I req sh)).
Proof.
  intros dcap h I req sh HTL. unfold ensure_size.
  destruct (N.eqb _ (cap h)); [apply cstep_id; exact HTL|].
  destruct (N.eqb _ 0); [apply (cstep_emptied h I _ _ HTL)|].
  destruct (N.eqb _ 4294967295); [apply cstep_id; exact HTL|]. cbn [fst].
  apply cstep_same; [exact HTL|apply TL_with_cap; exact HTL|apply ids_congr; reflexivity|reflexivity].
Qed.

Lemma cstep_fold : forall A (f : ht * itab * nat -> A -> ht * itab * nat) xs,
  (forall h I c x, TL t h I -> cstep t h I (fst (f (h, I, c) x))) ->
  forall h I c, TL t h I -> cstep t h I (fst (fold_left f xs (h, I, c))).
Proof.
  intros A f xs Hf. induction xs as [|x xs IH]; intros h I c HTL; cbn [fold_left]; [apply cstep_id; exact HTL|].
  pose proof (Hf h I c x HTL) as S1. destruct (f (h, I, c) x) as [[h1 I1] c1]. cbn [fst] in S1.
  eapply cstep_trans; [exact S1|apply IH; apply (cs_ok _ _ _ _ S1)].
Qed.

Lemma cstep_remove_keys : forall ks h I, TL t h I -> cstep t h I (fst (remove_keys h I ks)).
Proof.
  intros ks h I. unfold remove_keys. apply cstep_fold. clear. intros h I c k HTL. cbv beta iota.
  destruct (find_key h k) as [e|] eqn:Ef; [|apply cstep_id; exact HTL].
  pose proof (cstep_remove_entry h I e HTL (TL_find_live t h I k e HTL Ef)) as S. destruct (remove_entry h I e). exact S.
Qed.

Lemma cstep_intersect_ids : forall other l h I, TL t h I -> cstep t h I (fst (intersect_ids h I other l)).
Proof.
  intros other l h I. unfold intersect_ids. apply cstep_fold. clear. intros h I c e HTL. cbv beta iota.
  destruct (key_of h e) as [k|] eqn:Ek; [|apply cstep_id; exact HTL].
  destruct (a_get other k); [apply cstep_id; exact HTL|].
  pose proof (cstep_remove_entry h I e HTL (key_of_live _ _ _ Ek)) as S. destruct (remove_entry h I e). exact S.
Qed.

End Cstep.

(* the same table, possibly with another capacity: what EnsureTableAllocated and a growing EnsureSize do *)
Definition recap (h h' : ht) : Prop := h' = h \/ exists c, h' = with_cap h c.

Lemma recap_facts : forall t h h' I, recap h h' ->
  (forall l, tinv h l -> tinv h' l) /\ (TL t h I -> TL t h' I) /\ (forall n, live h' n <-> live h n) /\
  fresh h' = fresh h /\ ids h' = ids h /\ (forall k, find_key h' k = find_key h k).
Proof.
  intros t h h' I [->|(c & ->)]; [split; [auto|split; [auto|split; [tauto|auto]]]|].
  split; [intros l; apply tinv_with_cap|split; [apply TL_with_cap|]].
  split; [intros n; unfold live, getn; cbn; tauto|split; [reflexivity|split; [apply ids_congr; reflexivity|]]].
  intros k. apply find_key_with_cap.
Qed.

Lemma ensure_allocated_recap : forall dcap h, recap h (ensure_allocated dcap h).
Proof. intros. unfold ensure_allocated. destruct (N.eqb (cap h) 0); [right; eexists|left]; reflexivity. Qed.

Lemma ensure_size_noshrink : forall dcap h I req,
  exists h1 st, ensure_size dcap h I req false = (h1, I, st) /\ recap h h1.
Proof.
  intros dcap h I req. unfold ensure_size.
  set (bigger := N.max (N.of_nat (cnt h)) (N.max req (cap h))).
  destruct (N.eqb bigger (cap h)) eqn:E1; [exists h, 0; split; [reflexivity|left; reflexivity]|].
  destruct (N.eqb bigger 0) eqn:E2.
  - exfalso. apply N.eqb_eq in E2. apply N.eqb_neq in E1. unfold bigger in *. lia.
  - destruct (N.eqb bigger 4294967295); [exists h, 3; split; [reflexivity|left; reflexivity]|].
    exists (with_cap h bigger), 0. split; [reflexivity|right; eexists; reflexivity].
Qed.

Lemma insert_entry_aux_meta : forall var h e, meta_eq h (insert_entry_aux var h e).
Proof.
  intros var h e. unfold insert_entry_aux.
  destruct var; [apply insert_same_data| |];
  (destruct (asort h); [|apply insert_same_data]; destruct (kv_of h e); [|apply insert_same_data];
   destruct (hd h); [|apply insert_same_data]; match goal with |- context [if ?c then _ else _] => destruct c end; apply insert_same_data).
Qed.

Section TP.
Variable var : variant.
Variable dcap : N.
Variable t : nat.

(* PutAux of a key that is there: the value of its entry e is replaced (same list, same entries), then
   e is repositioned *)
Lemma put_aux_old : forall h0 I k v l e, TL t h0 I -> tinv h0 l -> find_key (ensure_allocated dcap h0) k = Some e ->
  let r := put_aux var dcap h0 I k v in
  exists h1, In e l /\ tinv h1 l /\ TL t h1 I /\ (forall n, live h1 n <-> live h0 n) /\ fresh h1 = fresh h0 /\
    (pa_h r, pa_i r) = reposition_aux var h1 I e /\ pa_e r = e.
Proof.
  intros h0 I k v l e HTL0 T0 Ef r. unfold r, put_aux. rewrite Ef.
  destruct (recap_facts t h0 _ I (ensure_allocated_recap dcap h0)) as (RT & RTL & Lv0 & Fr0 & _).
  set (h := ensure_allocated dcap h0) in *. pose proof (RT l T0) as T.
  destruct (find_key_some_in h l k e T Ef) as [He _].
  destruct (tinv_set_val h l e v T He) as (T1 & Lv1 & _). destruct (meta_set_val h e v) as (_ & _ & Mf & _ & Mi).
  exists (set_val h e v). split; [exact He|split; [exact T1|split; [|split; [|split; [congruence|]]]]].
  - apply (TL_same_I t h _ I (RTL HTL0)); [eexists; exact T1|exact Mi|intros c; apply Lv1].
  - intros n. rewrite Lv1. apply Lv0.
  - destruct (reposition_aux var (set_val h e v) I e). split; reflexivity.
Qed.

(* PutAux of a new key: the iterators are returned as they are, the entry is the fresh id, and it is
   put into the list at one place *)
Lemma put_aux_new : forall h0 I k v l, tinv h0 l -> find_key (ensure_allocated dcap h0) k = None ->
  let r := put_aux var dcap h0 I k v in
  pa_i r = I /\ pa_e r = fresh h0 /\ fresh (pa_h r) = Pos.succ (fresh h0) /\
  (forall n, live (pa_h r) n <-> live h0 n \/ n = fresh h0) /\
  exists m1 m2, l = m1 ++ m2 /\ tinv (pa_h r) (m1 ++ fresh h0 :: m2).
Proof.
  intros h0 I k v l T0 Ef r. unfold r, put_aux. rewrite Ef.
  destruct (recap_facts t h0 _ I (ensure_allocated_recap dcap h0)) as (RT & _ & Lv0 & Fr0 & _).
  set (h := ensure_allocated dcap h0) in *. pose proof (RT l T0) as T.
  rewrite (tinv_find_key h l k T) in Ef.
  assert (G : exists h00 st, (if N.eqb (N.of_nat (cnt h)) (cap h) then ensure_size dcap h I (cap h * 2) false else (h, I, 0)) = (h00, I, st) /\ recap h h00).
  { destruct (N.eqb (N.of_nat (cnt h)) (cap h)); [apply ensure_size_noshrink|exists h, 0; split; [reflexivity|left; reflexivity]]. }
  destruct G as (h00 & st & -> & Rc).
  destruct (recap_facts t h h00 I Rc) as (RT1 & _ & Lv1 & Fr1 & _ & Fk1).
  assert (Ef1 : find_id h00 k l = None) by (rewrite <- (tinv_find_key h00 l k (RT1 l T)), Fk1, (tinv_find_key h l k T); exact Ef).
  destruct (abs_insert_new var h00 l k v (RT1 l T) Ef1) as (m1 & m2 & El & T' & _ & _ & _ & _ & Ee & _ & _ & _ & Lv2).
  pose proof (insert_entry_aux_meta var (fst (alloc_node h00 k v)) (snd (alloc_node h00 k v))) as (_ & _ & Mf & _).
  destruct (alloc_node h00 k v) as [h1 e] eqn:EA. cbn [fst snd] in *. unfold pa_h, pa_i, pa_e. cbn [fst snd].
  assert (Fh1 : fresh h1 = Pos.succ (fresh h00)) by (unfold alloc_node in EA; inversion EA; reflexivity).
  assert (E0 : fresh h00 = fresh h0) by congruence. subst e. rewrite E0 in *.
  split; [reflexivity|split; [reflexivity|split; [cbn [fresh with_cnt]; congruence|split]]].
  - intros n. rewrite Lv2, Lv1, Lv0. tauto.
  - exists m1, m2. auto.
Qed.

(* PutAux is calm when it does not reposition an existing entry: plain class, or a new key *)
Lemma cstep_put_aux : forall h I k v, TL t h I ->
  (var = VPlain \/ find_key (ensure_allocated dcap h) k = None) ->
  cstep t h I (pa_h (put_aux var dcap h I k v), pa_i (put_aux var dcap h I k v)).
Proof.
  intros h I k v HTL Hcalm. split; [exact HTL|apply put_aux_ok; exact HTL|]. cbn [fst snd].
  destruct (tl_tinv _ _ _ HTL) as (l & T).
  destruct (find_key (ensure_allocated dcap h) k) as [e|] eqn:Ef.
  - destruct Hcalm as [Ev|Hn]; [|discriminate].
    destruct (put_aux_old h I k v l e HTL T Ef) as (h1 & _ & T1 & _ & _ & Fr & E & _). cbn zeta in E.
    rewrite Ev in *. injection E as Eh Ei. rewrite Eh, Ei. apply tscalm_same; [rewrite (tinv_ids _ _ T1), (tinv_ids _ _ T); reflexivity|exact Fr].
  - destruct (put_aux_new h I k v l T Ef) as (Ei & _ & Fr & _ & m1 & m2 & El & T'). cbn zeta in *. rewrite Ei.
    apply (tscalm_insert t h I _ m1 m2 HTL); [rewrite (tinv_ids _ _ T); exact El|apply (tinv_ids _ _ T')|exact Fr].
Qed.

End TP.

Definition it_owner (w : world) (i : nat) : option nat :=
  match geti (its w) i with Some it => iown it | None => None end.
Definition it_list (w : world) (i : nat) : list positive :=
  match it_owner w i with Some t => ids (gett w t) | None => [] end.
Definition it_fresh (w : world) (i : nat) : positive :=
  match it_owner w i with Some t => fresh (gett w t) | None => 1%positive end.
Definition pending (w : world) (i : nat) : list positive :=
  match geti (its w) i with
  | Some it => match iown it with Some t => pend (ids (gett w t)) it | None => [] end
  | None => []
  end.
(* the entry the iterator shows right now, when it shows a live entry (not its scratch copy) *)
Definition cur (w : world) (i : nat) : option positive :=
  match geti (its w) i with
  | Some it => match iscr it, iown it with None, Some _ => icookie it | _, _ => None end
  | None => None
  end.
Definition it_bw (w : world) (i : nat) : option bool :=
  match geti (its w) i with Some it => Some (ibw it) | None => None end.

Record calm_rel (w w' : world) (i : nat) : Prop := mkCalm {
  cr_new : forall n, In n (it_list w' i) -> In n (it_list w i) \/ (it_fresh w i <= n)%positive;
  cr_fresh : it_owner w' i <> None -> (it_fresh w i <= it_fresh w' i)%positive;
  cr_keep : forall n, In n (pending w i) -> In n (it_list w' i) -> In n (pending w' i);
  cr_res : forall n, In n (pending w' i) -> In n (pending w i) \/ (it_fresh w i <= n)%positive;
  cr_det : it_owner w i = None -> it_owner w' i = None }.

Lemma pending_incl : forall w i n, WF w -> In n (pending w i) -> In n (it_list w i).
Proof.
  intros w i n W H. unfold pending, it_list, it_owner in *. destruct (geti (its w) i) as [it|] eqn:Hg; [|destruct H].
  destruct (iown it) as [t|] eqn:O; [|destruct H].
  destruct (pend_incl _ _ _ H) as [H1|H1]; [exact H1|].
  apply (proj2 (TL_bounds t _ _ (WF_iter_TL w i it t W Hg O)) i it n Hg O H1).
Qed.

Lemma it_list_bound : forall w i n, WF w -> In n (it_list w i) -> (n < it_fresh w i)%positive.
Proof.
  intros w i n W H. unfold it_list, it_fresh, it_owner in *. destruct (geti (its w) i) as [it|] eqn:Hg; [|destruct H].
  destruct (iown it) as [t|] eqn:O; [|destruct H]. apply (proj1 (TL_bounds t _ _ (WF_iter_TL w i it t W Hg O)) n H).
Qed.

Lemma detached_empty : forall w i, it_owner w i = None -> it_list w i = [] /\ pending w i = [].
Proof.
  intros w i O. split.
  - unfold it_list. rewrite O. reflexivity.
  - unfold pending. unfold it_owner in O. destruct (geti (its w) i) as [it|]; [rewrite O; reflexivity|reflexivity].
Qed.

Lemma calm_rel_refl : forall w i, calm_rel w w i.
Proof. intros. constructor; auto. intros _. apply Pos.le_refl. Qed.

Lemma calm_rel_eqs : forall w w' i,
  it_list w' i = it_list w i -> it_fresh w' i = it_fresh w i -> pending w' i = pending w i ->
  (it_owner w i = None -> it_owner w' i = None) -> calm_rel w w' i.
Proof.
  intros w w' i El Ef Ep D. constructor; rewrite ?El, ?Ef, ?Ep; auto. intros _. apply Pos.le_refl.
Qed.

Lemma slot_view : forall w i it, geti (its w) i = Some it ->
  it_owner w i = iown it /\
  it_list w i = match iown it with Some t => ids (gett w t) | None => [] end /\
  it_fresh w i = match iown it with Some t => fresh (gett w t) | None => 1%positive end /\
  pending w i = match iown it with Some t => pend (ids (gett w t)) it | None => [] end.
Proof. intros w i it Hg. unfold it_list, it_fresh, it_owner, pending. rewrite Hg. auto. Qed.

Lemma calm_rel_same : forall w w' i, geti (its w') i = geti (its w) i ->
  (forall t, it_owner w i = Some t -> ids (gett w' t) = ids (gett w t) /\ fresh (gett w' t) = fresh (gett w t)) ->
  calm_rel w w' i.
Proof.
  intros w w' i Hg Ht. unfold it_owner in Ht.
  apply calm_rel_eqs; unfold it_list, it_fresh, it_owner, pending; rewrite Hg; auto;
    destruct (geti (its w) i) as [it|]; auto; destruct (iown it) as [t|]; auto;
    destruct (Ht t eq_refl) as [El Ef]; rewrite ?El, ?Ef; reflexivity.
Qed.

(* a detached iterator has nothing left to show, whatever it had before *)
Lemma calm_rel_to_detached : forall w w' i, it_owner w' i = None -> calm_rel w w' i.
Proof.
  intros w w' i O'. destruct (detached_empty w' i O') as [El Ep].
  constructor; rewrite ?El, ?Ep; try contradiction; auto.
Qed.

Lemma calm_rel_detached : forall w w' i, it_owner w i = None -> it_owner w' i = None -> calm_rel w w' i.
Proof. intros w w' i _. apply calm_rel_to_detached. Qed.

Lemma calm_rel_trans : forall w0 w1 w2 i, WF w0 -> calm_rel w0 w1 i -> calm_rel w1 w2 i -> calm_rel w0 w2 i.
Proof.
  intros w0 w1 w2 i W0 [N1 F1 K1 R1 D1] [N2 F2 K2 R2 D2].
  destruct (it_owner w1 i) as [t1|] eqn:O1; [|apply calm_rel_to_detached; apply D2; reflexivity].
  assert (F01 : (it_fresh w0 i <= it_fresh w1 i)%positive) by (apply F1; congruence).
  constructor.
  - intros n Hn. destruct (N2 n Hn) as [H|H]; [apply N1; exact H|right; eapply Pos.le_trans; eassumption].
  - intros O2. eapply Pos.le_trans; [exact F01|apply F2; exact O2].
  - intros n Hp Hn2. apply K2; [|exact Hn2]. apply K1; [exact Hp|].
    (* an entry that was pending at the start is older than anything created since *)
    destruct (N2 n Hn2) as [H|H]; [exact H|]. exfalso.
    pose proof (it_list_bound w0 i n W0 (pending_incl w0 i n W0 Hp)) as B. lia.
  - intros n Hn. destruct (R2 n Hn) as [H|H]; [apply R1; exact H|right; eapply Pos.le_trans; eassumption].
  - intros O0. discriminate (D1 O0).
Qed.

Lemma calm_rel_tcalm : forall w w' i it it' t, geti (its w) i = Some it -> iown it = Some t ->
  geti (its w') i = Some it' -> iown it' = Some t ->
  tcalm (ids (gett w t)) (fresh (gett w t)) it (ids (gett w' t)) (fresh (gett w' t)) it' -> calm_rel w w' i.
Proof.
  intros w w' i it it' t Hg O Hg' O' [Cf Cn Ck Cr _].
  destruct (slot_view w i it Hg) as (Eo & El & Ef & Ep). destruct (slot_view w' i it' Hg') as (Eo' & El' & Ef' & Ep').
  rewrite O in *. rewrite O' in *. constructor; rewrite ?El, ?El', ?Ef, ?Ef', ?Ep, ?Ep'; auto. congruence.
Qed.

(* the designated iterator is a registered one (its NOREGISTER flag is off) *)
Definition reg (w : world) (i : nat) : Prop := exists it, geti (its w) i = Some it /\ inoreg it = false.

Lemma it_list_put_other : forall w t h' I' i it, frame t (its w) I' -> geti (its w) i = Some it -> iown it <> Some t ->
  it_list (put_ti w t h' I') i = it_list w i.
Proof.
  intros w t h' I' i it F Hg O. unfold it_list, it_owner. rewrite its_put, (fr_other _ _ _ F i it Hg O), Hg.
  destruct (iown it) as [u|]; [|reflexivity]. rewrite gett_put_other by congruence. reflexivity.
Qed.

(* what every step has to do for the designated iterator i *)
Definition keeps (i : nat) (w w' : world) : Prop := calm_rel w w' i /\ reg w' i.

Lemma keeps_refl : forall i w, reg w i -> keeps i w w.
Proof. intros i w R. split; [apply calm_rel_refl|exact R]. Qed.

Lemma keeps_trans : forall i w0 w1 w2, WF w0 -> keeps i w0 w1 -> keeps i w1 w2 -> keeps i w0 w2.
Proof. intros i w0 w1 w2 W [C1 _] [C2 R2]. split; [apply (calm_rel_trans w0 w1 w2 i W C1 C2)|exact R2]. Qed.

Lemma keeps_same : forall i w w', geti (its w') i = geti (its w) i ->
  (forall t, ids (gett w' t) = ids (gett w t) /\ fresh (gett w' t) = fresh (gett w t)) -> reg w i -> keeps i w w'.
Proof.
  intros i w w' Hg Ht (it & Hgi & R). split; [apply calm_rel_same; [exact Hg|intros; apply Ht]|].
  exists it. rewrite Hg. auto.
Qed.

(* A framed step on table t.  An iterator of another table keeps its record and its table; for an
   iterator of t it is enough that its new record is detached, or still with t and in the table-level
   relation [tcalm] to the old one. *)
Lemma keeps_put : forall w t h' I' i, t < length (tabs w) -> frame t (its w) I' -> reg w i ->
  (forall it, geti (its w) i = Some it -> iown it = Some t -> inoreg it = false ->
     exists it', geti I' i = Some it' /\ inoreg it' = false /\
       (iown it' = None \/
        (iown it' = Some t /\ tcalm (ids (gett w t)) (fresh (gett w t)) it (ids h') (fresh h') it'))) ->
  keeps i w (put_ti w t h' I').
Proof.
  intros w t h' I' i Ht F (it & Hg & R) S.
  destruct (option_eq_dec_nat (iown it) (Some t)) as [O|O].
  - destruct (S it Hg O R) as (it' & Hg' & R' & [O'|[O' C]]); (split; [|exists it'; rewrite its_put; auto]).
    + apply calm_rel_to_detached. unfold it_owner. rewrite its_put, Hg'. exact O'.
    + apply (calm_rel_tcalm _ _ i it it' t Hg O); rewrite ?its_put, ?gett_put_same by exact Ht; assumption.
  - pose proof (fr_other _ _ _ F i it Hg O) as E.
    split; [|exists it; rewrite its_put; auto]. apply calm_rel_same; [rewrite its_put, Hg; exact E|].
    intros u Ou. unfold it_owner in Ou. rewrite Hg in Ou. rewrite gett_put_other by congruence. auto.
Qed.

Lemma keeps_cstep : forall w t r i, t < length (tabs w) -> cstep t (gett w t) (its w) r -> reg w i ->
  keeps i w (put_ti w t (fst r) (snd r)).
Proof.
  intros w t r i Ht [_ [_ F] S] R. apply keeps_put; [exact Ht|exact F|exact R|].
  intros it Hg O Rg. destruct (S i it Hg O) as (it' & Hg' & Rg' & [C|[O' _]]); exists it'; (split; [exact Hg'|split; [congruence|auto]]).
Qed.

(* table t is emptied, all its registered iterators are detached, and whatever happens to it afterwards *)
Lemma keeps_emptied : forall w t h' i, WF w -> t < length (tabs w) -> reg w i ->
  keeps i w (put_ti w t h' (detach_all (gett w t) (its w))).
Proof.
  intros w t h' i W Ht R. pose proof (wf_tabs _ W t Ht) as HTL.
  apply keeps_put; [exact Ht|apply (emptied_ok t _ _ 0%N true HTL)|exact R|].
  intros it Hg O Rg. exists (detach_iter (gett w t) it). split; [|split; [exact Rg|left; reflexivity]].
  rewrite detach_all_eq, map_its_in, Hg; [reflexivity|apply (tl_nodup _ _ _ HTL)|apply (tl_own _ _ _ HTL i it Hg O); exact Rg].
Qed.

Lemma ids_same_content : forall h h', same_content h h' -> ids h' = ids h /\ fresh h' = fresh h.
Proof. intros h h' (En & Eh & Et & Ec & Ef & Ei). split; [apply ids_congr; assumption|exact Ef]. Qed.

Lemma calm_rel_reowned : forall w w' i it t u, geti (its w) i = Some it -> iown it = Some t ->
  geti (its w') i = Some (reown u it) ->
  ids (gett w' u) = ids (gett w t) -> fresh (gett w' u) = fresh (gett w t) -> calm_rel w w' i.
Proof.
  intros w w' i it t u Hg O Hg' El Ef.
  destruct (slot_view w i it Hg) as (Eo & El0 & Ef0 & Ep0). destruct (slot_view w' i _ Hg') as (_ & El1 & Ef1 & Ep1).
  cbn [iown reown] in El1, Ef1, Ep1. rewrite O in *.
  apply calm_rel_eqs; [rewrite El1, El0|rewrite Ef1, Ef0|rewrite Ep1, Ep0, El|rewrite Eo; discriminate]; auto.
Qed.

Lemma keeps_exchange : forall w t u a' b' i, WF w -> t < length (tabs w) -> u < length (tabs w) -> t <> u ->
  same_content (gett w u) a' -> same_content (gett w t) b' -> reg w i -> keeps i w (exchange w t u a' b').
Proof.
  intros w t u a' b' i W Ht Hu Htu Sa Sb (it & Hg & R). set (w' := exchange w t u a' b').
  pose proof (ex_geti w t u W Ht Hu Htu i) as G. cbv zeta in G. change (set_owners _ _ u) with (its w') in G.
  pose proof (ex_gett_t w t u a' b' Ht Htu : gett w' t = a') as Gt.
  pose proof (ex_gett_u w t u a' b' Hu : gett w' u = b') as Gu.
  destruct (ids_same_content _ _ Sa) as [Ia Fa]. destruct (ids_same_content _ _ Sb) as [Ib Fb].
  rewrite Hg in G. cbn [option_map] in G.
  destruct (in_dec Nat.eq_dec i (ilist (gett w t))) as [Ha|Ha]; [|destruct (in_dec Nat.eq_dec i (ilist (gett w u))) as [Hb|Hb]].
  - destruct (tl_reg _ _ _ (wf_tabs _ W t Ht) i Ha) as (it0 & Hg0 & O & _). rewrite Hg in Hg0. inversion Hg0; subst it0.
    split; [|exists (reown u it); split; [exact G|exact R]].
    apply (calm_rel_reowned w w' i it t u Hg O G); rewrite Gu; assumption.
  - destruct (tl_reg _ _ _ (wf_tabs _ W u Hu) i Hb) as (it0 & Hg0 & O & _). rewrite Hg in Hg0. inversion Hg0; subst it0.
    split; [|exists (reown t it); split; [exact G|exact R]].
    apply (calm_rel_reowned w w' i it u t Hg O G); rewrite Gt; assumption.
  - split; [|exists it; split; [exact G|exact R]].
    apply calm_rel_same; [rewrite Hg; exact G|].
    (* a registered iterator outside both lists belongs to a third table *)
    intros v Ov. unfold it_owner in Ov. rewrite Hg in Ov.
    pose proof (wf_its _ W i it Hg) as Hv. rewrite Ov in Hv.
    destruct (tl_own _ _ _ (wf_tabs _ W v Hv) i it Hg Ov) as [A _]. specialize (A R).
    assert (Go : gett w' v = gett w v) by (apply (ex_gett_other w t u a' b' v); intro Ev; rewrite Ev in A; contradiction).
    rewrite Go. auto.
Qed.
