(* C16 -- what the ideal Sort (stable, on a sub-range, by a key) guarantees; refinement of QueueIterator,
   RemoveSortedDuplicateItems, InsertItemAtSortedPosition, GetArrayPointer, Adopt/ReleaseRawDataArray. *)
From Coq Require Import List Arith ZArith Bool Lia ZifyBool Sorting.Permutation Sorting.Sorted.
From Muscle Require Import Cont.QueueModel Cont.QueueLemmas Cont.QueueInv Cont.QueueOps1 Cont.QueueEnsure
  Cont.QueueOps2 Cont.QueueOps3.
Import ListNotations.
Local Open Scope nat_scope.

Section StableSort.
Variable k : Z -> Z.
Definition key_le (x y : Z) : Prop := (k x <= k y)%Z.

Lemma insert_by_length x l : length (insert_by k x l) = S (length l).
Proof. induction l as [|y t IH]; cbn [insert_by length]; [reflexivity|]. destruct (Z.leb (k x) (k y)); cbn [length]; lia. Qed.

Lemma isort_by_length l : length (isort_by k l) = length l.
Proof. induction l as [|x l IH]; cbn [isort_by fold_right length]; [reflexivity|]. rewrite insert_by_length. fold (isort_by k l). lia. Qed.

Lemma insert_by_perm x l : Permutation (insert_by k x l) (x :: l).
Proof.
  induction l as [|y t IH]; cbn [insert_by]; [apply Permutation_refl|].
  destruct (Z.leb (k x) (k y)); [apply Permutation_refl|].
  eapply perm_trans; [apply perm_skip; exact IH|apply perm_swap].
Qed.

Lemma isort_by_perm l : Permutation (isort_by k l) l.
Proof.
  induction l as [|x l IH]; cbn [isort_by fold_right]; [apply perm_nil|]. fold (isort_by k l).
  eapply perm_trans; [apply insert_by_perm|apply perm_skip; exact IH].
Qed.

Lemma insert_by_forall (P : Z -> Prop) x l : P x -> Forall P l -> Forall P (insert_by k x l).
Proof.
  intros Hx Hl. induction Hl as [|y t Hy Ht IH]; cbn [insert_by]; [constructor; [assumption|constructor]|].
  destruct (Z.leb (k x) (k y)); constructor; try assumption. constructor; assumption.
Qed.

Lemma insert_by_sorted x l : StronglySorted key_le l -> StronglySorted key_le (insert_by k x l).
Proof.
  intros H. induction H as [|y t Ht IH Hy]; cbn [insert_by]; [constructor; [constructor|constructor]|].
  destruct (Z.leb (k x) (k y)) eqn:E.
  - constructor; [constructor; assumption|]. constructor; [unfold key_le; lia|].
    eapply Forall_impl; [|exact Hy]. unfold key_le. intros z Hz. lia.
  - constructor; [exact IH|]. apply insert_by_forall; [unfold key_le; lia|exact Hy].
Qed.

Lemma isort_by_sorted l : StronglySorted key_le (isort_by k l).
Proof.
  induction l as [|x l IH]; cbn [isort_by fold_right]; [constructor|]. apply insert_by_sorted. exact IH.
Qed.

(* stability: items with the same key keep their relative order *)
Lemma insert_by_filter v x l :
  filter (fun y => Z.eqb (k y) v) (insert_by k x l) = filter (fun y => Z.eqb (k y) v) (x :: l).
Proof.
  induction l as [|y t IH]; cbn [insert_by]; [reflexivity|].
  destruct (Z.leb (k x) (k y)) eqn:E; [reflexivity|].
  cbn [filter] in *. rewrite IH.
  destruct (Z.eqb (k x) v) eqn:Ex; destruct (Z.eqb (k y) v) eqn:Ey; try reflexivity. lia.
Qed.

Lemma isort_by_stable v l :
  filter (fun y => Z.eqb (k y) v) (isort_by k l) = filter (fun y => Z.eqb (k y) v) l.
Proof.
  induction l as [|x l IH]; cbn [isort_by fold_right]; [reflexivity|]. fold (isort_by k l).
  rewrite insert_by_filter. cbn [filter]. rewrite IH. reflexivity.
Qed.

End StableSort.

(* Sort(from, to) on the ideal sequence: same length, a permutation, untouched outside the range, and
   inside the range sorted by the key with equal-key items in their original order *)
Lemma l0_sort_length bk l f t : length (l0_sort bk l f t) = length l.
Proof.
  unfold l0_sort. cbv zeta. destruct (f <? Nat.min t (length l)) eqn:E; [|reflexivity].
  autorewrite with nthdb. rewrite isort_by_length. autorewrite with nthdb. lia.
Qed.

Theorem l0_sort_perm bk l f t : Permutation (l0_sort bk l f t) l.
Proof.
  unfold l0_sort. cbv zeta. set (t' := Nat.min t (length l)).
  destruct (f <? t') eqn:E; [|apply Permutation_refl].
  rewrite <- (firstn_skipn f l) at 4. apply Permutation_app_head.
  rewrite <- (firstn_skipn (t' - f) (skipn f l)) at 2.
  assert (Hsk : skipn t' l = skipn (t' - f) (skipn f l)) by (rewrite skipn_skipn'; f_equal; lia).
  rewrite Hsk.
  apply Permutation_app_tail. apply isort_by_perm.
Qed.

Theorem l0_sort_range bk l f t :
  let t' := Nat.min t (length l) in
  f < t' ->
  exists mid, l0_sort bk l f t = firstn f l ++ mid ++ skipn t' l /\ length mid = t' - f /\
    StronglySorted (key_le (sort_key bk)) mid /\
    forall v, filter (fun y => Z.eqb (sort_key bk y) v) mid =
              filter (fun y => Z.eqb (sort_key bk y) v) (firstn (t' - f) (skipn f l)).
Proof.
  intros t' H. unfold l0_sort. cbv zeta. fold t'. replace (f <? t') with true by lia.
  exists (isort_by (sort_key bk) (firstn (t' - f) (skipn f l))).
  split; [reflexivity|]. split; [rewrite isort_by_length; autorewrite with nthdb; subst t'; lia|].
  split; [apply isort_by_sorted|]. intros v. apply isort_by_stable.
Qed.

Lemma dedup_fold_length l : forall acc, length (fold_left dedup_step l acc) <= length acc + length l.
Proof.
  induction l as [|x l IH]; intros acc; cbn [fold_left length]; [lia|].
  specialize (IH (dedup_step acc x)). unfold dedup_step in *.
  destruct acc as [|y acc']; cbn [length] in *; [lia|]. destruct (Z.eqb x y); cbn [length] in *; lia.
Qed.

Lemma dedup_adj_length l : length (dedup_adj l) <= length l.
Proof. unfold dedup_adj. rewrite rev_length. apply (dedup_fold_length l []). Qed.

Lemma dedup_fold_nonnil l : forall acc, acc <> [] -> fold_left dedup_step l acc <> [].
Proof.
  induction l as [|x l IH]; intros acc H; cbn [fold_left]; [exact H|]. apply IH.
  unfold dedup_step. destruct acc as [|y t]; [congruence|]. destruct (Z.eqb x y); discriminate.
Qed.

(* appending an item: it is kept iff it differs from the last item kept *)
Lemma dedup_adj_snoc l v : l <> [] ->
  dedup_adj (l ++ [v]) = if Z.eqb v (last (dedup_adj l) 0%Z) then dedup_adj l else dedup_adj l ++ [v].
Proof.
  intros H. unfold dedup_adj. rewrite fold_left_app. cbn [fold_left].
  destruct (fold_left dedup_step l []) as [|y t] eqn:E.
  - exfalso. destruct l as [|x l]; [congruence|]. cbn [fold_left dedup_step] in E. revert E. apply dedup_fold_nonnil. discriminate.
  - cbn [dedup_step rev]. rewrite last_last. destruct (Z.eqb v y); reflexivity.
Qed.

Lemma last_le_bound x l : forall i j, last_le x l i = Some j -> i <= j < i + length l.
Proof.
  induction l as [|y t IH]; intros i j H; cbn [last_le length] in *; [discriminate|].
  destruct (last_le x t (S i)) as [j'|] eqn:E.
  - injection H as <-. apply IH in E. lia.
  - destruct (Z.leb y x); [injection H as <-; lia|discriminate].
Qed.

Lemma sorted_pos_bound l x : sorted_pos l x <= length l.
Proof.
  unfold sorted_pos. destruct l as [|h t]; [cbn; lia|]. destruct (Z.leb h x); [|lia].
  destruct (last_le x (h :: t) 0) as [j|] eqn:E; [|lia]. apply last_le_bound in E. lia.
Qed.

(* the window read as its (at most two) contiguous runs of slots is the item sequence *)
Lemma pieces_spec ow sq q : inv ow sq q -> fst (pieces q) ++ snd (pieces q) = abs q.
Proof.
  intros I. unfold pieces. destruct (cnt q) as [|c] eqn:Ec; [rewrite (abs_cnt0 q Ec); reflexivity|].
  pose proof (inv_cnt _ _ q I) as Hn. pose proof (inv_hd _ _ q I ltac:(lia)) as Hh.
  pose proof (inv_tail _ _ q I ltac:(lia)) as Ht. clear I.
  unfold intern in Ht. cbv zeta in Ht. unfold qsize in *. cbn [fst snd]. symmetry.
  destruct (head q + (cnt q - 1) <? length (arr q)) eqn:E.
  - (* one piece *)
    replace (head q <=? tail q) with true by lia. replace (tail q <? head q) with false by lia. rewrite app_nil_r.
    apply abs_ext; autorewrite with nthdb; [lia|].
    intros i Hi. autorewrite with nthdb in Hi. autorewrite with nthdb. unfold getu, intern, qsize. cbv zeta.
    replace (head q + i <? length (arr q)) with true by lia.
    replace (i <? tail q - head q + 1) with true by lia. reflexivity.
  - (* the window wraps around the end of the array *)
    replace (head q <=? tail q) with false by lia. replace (tail q <? head q) with true by lia.
    apply abs_ext; autorewrite with nthdb; [lia|].
    intros i Hi. autorewrite with nthdb in Hi. autorewrite with nthdb. unfold getu, intern, qsize. cbv zeta.
    replace (Nat.min (length (arr q) - head q) (length (arr q) - head q)) with (length (arr q) - head q) by lia.
    destruct (i <? length (arr q) - head q) eqn:E2.
    + replace (head q + i <? length (arr q)) with true by lia. reflexivity.
    + replace (head q + i <? length (arr q)) with false by lia.
      replace (i - (length (arr q) - head q) <? tail q + 1) with true by lia. f_equal. lia.
Qed.

Lemma lex_loop_abs a b k : forall i, i + k <= cnt a -> i + k <= cnt b ->
  lex_loop (getu a) (getu b) i k = lex_loop (fun j => nth j (abs a) 0%Z) (fun j => nth j (abs b) 0%Z) i k.
Proof.
  induction k as [|k IH]; intros i Ha Hb; cbn [lex_loop]; [reflexivity|].
  rewrite !nth_abs by lia. rewrite IH by lia. reflexivity.
Qed.

Lemma lex_cmp_abs a b :
  lex_cmp (getu a) (cnt a) (getu b) (cnt b) =
  lex_cmp (fun j => nth j (abs a) 0%Z) (length (abs a)) (fun j => nth j (abs b) 0%Z) (length (abs b)).
Proof. unfold lex_cmp. rewrite !abs_length, lex_loop_abs by lia. reflexivity. Qed.

Section SortOps.
Variables (jk : Z) (sq : nat).
Implicit Types (ow : bool) (q : q1).

(* the compaction loop after the items 0 .. k-1 have been read *)
Lemma rsd_loop_spec ow q k : inv ow sq q -> k < cnt q ->
  let s := fold_left rsd_step (seq 1 k) (q, 1) in
  inv ow sq (fst s) /\ cnt (fst s) = cnt q /\ 1 <= snd s <= S k /\
  firstn (snd s) (abs (fst s)) = dedup_adj (firstn (S k) (abs q)) /\
  skipn (S k) (abs (fst s)) = skipn (S k) (abs q).
Proof.
  intros I. induction k as [|k IH]; intros Hk.
  - cbn [seq fold_left fst snd]. split; [assumption|]. split; [reflexivity|]. split; [lia|]. split; [|reflexivity].
    destruct (abs q) as [|x t] eqn:E; [apply (f_equal (@length Z)) in E; rewrite abs_length in E; cbn in E; lia|]. reflexivity.
  - rewrite seq_S, fold_left_app. cbn [fold_left Nat.add].
    destruct (IH ltac:(lia)) as (I1 & C1 & W1 & F1 & S1).
    destruct (fold_left rsd_step (seq 1 k) (q, 1)) as [g w]. cbn [fst snd] in *.
    destruct (compact_step sq ow g (abs q) w (S k) I1) as (V & S2 & K); rewrite ?abs_length; try lia; try assumption.
    assert (L : last (firstn w (abs g)) 0%Z = getu g (w - 1)).
    { replace w with (S (w - 1)) at 1 by lia. rewrite (firstn_S_snoc (abs g) (w - 1)) by (rewrite abs_length; lia).
      rewrite last_last. apply nth_abs. lia. }
    rewrite (firstn_S_snoc (abs q) (S k)) by (rewrite abs_length; lia).
    rewrite dedup_adj_snoc, <- F1, L, <- V
      by (intros E; apply (f_equal (@length Z)) in E; autorewrite with nthdb in E; cbn [length] in E; lia).
    unfold rsd_step. destruct (Z.eqb (getu g (S k)) (getu g (w - 1))); cbn [fst snd].
    + split; [assumption|]. split; [assumption|]. split; [lia|]. split; [reflexivity|assumption].
    + destruct K as (K1 & K2 & K3 & K4). rewrite abs_length in K2. split; [exact K1|]. split; [exact K2|]. split; [lia|].
      split; assumption.
Qed.

Lemma remove_sorted_dups_spec ow q : inv ow sq q ->
  let r := remove_sorted_dups ow jk sq q in
  inv ow sq (fst r) /\ abs (fst r) = dedup_adj (abs q) /\ snd r = cnt q - length (dedup_adj (abs q)).
Proof.
  intros I r. subst r. unfold remove_sorted_dups. destruct (cnt q =? 0) eqn:E.
  - cbn [fst snd]. rewrite (abs_cnt0 q) by lia. split; [assumption|]. split; [reflexivity|]. cbn. lia.
  - destruct (rsd_loop_spec ow q (cnt q - 1) I ltac:(lia)) as (I1 & C1 & W1 & F1 & _).
    destruct (fold_left rsd_step (seq 1 (cnt q - 1)) (q, 1)) as [g w]. cbn [fst snd] in *.
    replace (S (cnt q - 1)) with (cnt q) in * by lia.
    rewrite (firstn_abs_all q (cnt q)) in F1 by lia.
    destruct (ensure_size_spec jk sq ow g w true 0 false I1) as (K1 & K2 & _).
    split; [assumption|]. split.
    + rewrite K2, l0_resize_shrink by (rewrite abs_length; lia). exact F1.
    + rewrite <- F1, firstn_length', abs_length. lia.
Qed.

Lemma insert_sorted_spec ow q x : inv ow sq q ->
  let r := insert_sorted ow jk sq q x in
  inv ow sq (fst r) /\ abs (fst r) = l0_insert_at (abs q) (sorted_pos (abs q) x) [x] /\
  snd r = sorted_pos (abs q) x.
Proof.
  intros I r. subst r. unfold insert_sorted. cbv zeta. cbn [fst snd].
  pose proof (sorted_pos_bound (abs q) x) as HB. rewrite abs_length in HB.
  set (p := sorted_pos (abs q) x) in *.
  destruct (p =? 0) eqn:E.
  - destruct (add_head_spec jk sq ow q x I) as [J1 J2]. split; [assumption|]. split; [|reflexivity].
    rewrite J2. replace p with 0 by lia. reflexivity.
  - destruct (insert_at_spec jk sq ow q p x I) as [J1 J2]. split; [assumption|]. split; [|reflexivity].
    rewrite J2. replace (Nat.min p (cnt q)) with p by lia. reflexivity.
Qed.

Lemma iter_vals_abs q stride fuel : forall idx,
  iter_vals (getu q) (cnt q) idx stride fuel =
  iter_vals (fun i => nth i (abs q) 0%Z) (length (abs q)) idx stride fuel.
Proof.
  rewrite abs_length. induction fuel as [|f IH]; intros idx; cbn [iter_vals]; [reflexivity|].
  destruct (Z.leb 0 idx && Z.ltb idx (Z.of_nat (cnt q))) eqn:E; [|reflexivity].
  rewrite IH. f_equal. symmetry. apply nth_abs. lia.
Qed.

Lemma adopt_spec ow q xs spare : inv ow sq q ->
  inv ow sq (adopt ow q xs spare) /\ abs (adopt ow q xs spare) = xs.
Proof.
  intros I. unfold adopt. cbv zeta.
  destruct (clear_spec sq ow q true I) as [J1 J2].
  set (q0 := clear ow q true) in *.
  apply (inv_front sq ow SHeap xs _ _ (length xs) eq_refl (inv_sq _ _ q I)); try discriminate.
  - intros Ho i Hi. rewrite Ho, nth_repeat'. dif; reflexivity.
  - intros _. destruct (st q0) eqn:E0.
    + apply (inv_inl _ _ q0 J1). congruence.
    + pose proof (inv_store _ _ q0 J1) as S0. unfold store_ok in S0. rewrite E0 in S0.
      split; [exact S0|]. intros Ho i Hi. apply (all_dflt _ _ q0 J1 J2 Ho). lia.
    + apply (inv_inl _ _ q0 J1). congruence.
Qed.

Lemma release_spec ow q : inv ow sq q ->
  inv ow sq (fst (release ow jk q)) /\ abs (fst (release ow jk q)) = [].
Proof.
  intros I. unfold release.
  assert (G : st q <> SSmall ->
              inv ow sq (mkQ SNull [] 0 (head q) (tail q) (inl q)) /\ abs (mkQ SNull [] 0 (head q) (tail q) (inl q)) = []).
  { intros Hs. split; [|reflexivity].
    constructor; unfold store_ok, clean, inl_ok, qsize; cbn [st arr cnt head tail inl length]; try lia.
    - exact (inv_sq _ _ q I).
    - intros _. exact (inv_inl _ _ q I Hs). }
  destruct (st q) eqn:Es; cbn [fst].
  - apply G. congruence.
  - destruct (clear_spec sq ow q false I) as [J1 J2]. split; [exact J1|]. apply abs_cnt0. exact J2.
  - apply G. congruence.
Qed.

(* what ReleaseRawDataArray hands out holds the items: in user order for a copied in-object array, in ring order else *)
Lemma release_array_items ow q i : inv ow sq q -> i < cnt q ->
  nth (match st q with SSmall => i | _ => intern q i end) (snd (release ow jk q)) 0%Z = getu q i.
Proof.
  intros I Hi. unfold release. destruct (st q); cbn [snd]; try reflexivity.
  rewrite nth_app', abs_length. replace (i <? cnt q) with true by lia. apply nth_abs. exact Hi.
Qed.

End SortOps.
