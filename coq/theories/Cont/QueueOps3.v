(* C16 -- AddTailMulti, AddHeadMulti, InsertItemsAt, CopyFrom, RemoveAllInstancesOf, Normalize. *)
From Coq Require Import List Arith ZArith Bool Lia ZifyBool.
From Muscle Require Import Cont.QueueModel Cont.QueueLemmas Cont.QueueInv Cont.QueueOps1 Cont.QueueEnsure
  Cont.QueueOps2 Cont.QueueRotateCS.
Import ListNotations.
Local Open Scope nat_scope.

Lemma l0_resize_length (l : list Z) n : length (l0_resize l n) = n.
Proof. unfold l0_resize. autorewrite with nthdb. lia. Qed.

Lemma filter_split_length {A} (f : A -> bool) (l : list A) :
  length (filter f l) + length (filter (fun y => negb (f y)) l) = length l.
Proof.
  induction l as [|x l IH]; [reflexivity|]. cbn [filter]. destruct (f x); cbn [negb length]; lia.
Qed.

Section Ops3.
Variables (jk : Z) (sq : nat).
Implicit Types (ow : bool) (q : q1).

Lemma write_from_cons q s x xs : write_from q s (x :: xs) = write_from (setu q s x) (s + 1) xs.
Proof. reflexivity. Qed.

Lemma write_from_mid ow xs : forall q A M B s, inv ow sq q -> abs q = A ++ M ++ B -> s = length A ->
  length M = length xs ->
  inv ow sq (write_from q s xs) /\ abs (write_from q s xs) = A ++ xs ++ B.
Proof.
  induction xs as [|x xs IH]; intros q A M B s I H -> L.
  - destruct M; [|discriminate]. split; [exact I|exact H].
  - destruct M as [|m M]; [discriminate|]. rewrite write_from_cons.
    assert (Hs : length A < cnt q) by (rewrite <- (abs_length q), H, !app_length; cbn [length]; lia).
    destruct (IH (setu q (length A) x) (A ++ [x]) M B (length A + 1)) as [J1 J2].
    + apply inv_setu; assumption.
    + rewrite (abs_setu ow sq), H by assumption. cbn [app]. rewrite upd_app_mid, <- app_assoc. reflexivity.
    + rewrite app_length. reflexivity.
    + cbn [length] in L. lia.
    + split; [exact J1|]. rewrite J2, <- app_assoc. reflexivity.
Qed.

Lemma write_all_spec ow q xs : inv ow sq q -> length xs = cnt q ->
  inv ow sq (write_from q 0 xs) /\ abs (write_from q 0 xs) = xs.
Proof.
  intros I H. rewrite <- (app_nil_r xs) at 3.
  apply (write_from_mid ow xs q [] (abs q) []); [exact I|symmetry; apply app_nil_r|reflexivity|].
  rewrite abs_length. symmetry. exact H.
Qed.

Lemma add_tail_multi_spec ow q xs : inv ow sq q ->
  inv ow sq (add_tail_multi ow jk sq q xs) /\ abs (add_tail_multi ow jk sq q xs) = abs q ++ xs.
Proof.
  intros I. unfold add_tail_multi. cbv zeta.
  destruct (ensure_size_spec jk sq ow q (cnt q + length xs) true 0 false I) as (I1 & A1 & _).
  rewrite l0_resize_grow in A1 by (rewrite abs_length; lia).
  destruct (write_from_mid ow xs _ (abs q) (repeat 0%Z (cnt q + length xs - length (abs q))) [] (cnt q) I1) as [J1 J2];
    [rewrite app_nil_r; exact A1|symmetry; apply abs_length|rewrite repeat_length, abs_length; lia|].
  rewrite app_nil_r in J2. split; assumption.
Qed.

Lemma copy_from_spec ow q xs : inv ow sq q ->
  inv ow sq (copy_from ow jk sq q xs) /\ abs (copy_from ow jk sq q xs) = xs.
Proof.
  intros I. unfold copy_from.
  destruct (ensure_size_spec jk sq ow q (length xs) true 0 false I) as (I1 & A1 & _).
  apply write_all_spec; [exact I1|]. rewrite <- (abs_length (ensure_size _ _ _ _ _ _ _ _)), A1. symmetry. apply l0_resize_length.
Qed.

Lemma fold_add_head_spec ow ys : forall q, inv ow sq q ->
  inv ow sq (fold_left (add_head ow jk sq) ys q) /\
  abs (fold_left (add_head ow jk sq) ys q) = rev ys ++ abs q.
Proof.
  induction ys as [|y ys IH]; intros q I; cbn [fold_left rev app]; [split; [assumption|reflexivity]|].
  destruct (add_head_spec jk sq ow q y I) as [J1 J2].
  destruct (IH _ J1) as [K1 K2]. split; [assumption|].
  rewrite K2, J2, <- app_assoc. reflexivity.
Qed.

Lemma add_head_multi_spec ow q xs : inv ow sq q ->
  inv ow sq (add_head_multi ow jk sq q xs) /\ abs (add_head_multi ow jk sq q xs) = xs ++ abs q.
Proof.
  intros I. unfold add_head_multi. cbv zeta.
  destruct (ensure_size_spec jk sq ow q (cnt q + length xs) false 0 false I) as (I1 & A1 & _).
  destruct (fold_add_head_spec ow (rev xs) _ I1) as [J1 J2].
  split; [assumption|]. rewrite J2, rev_involutive, A1. reflexivity.
Qed.

Lemma insert_items_general_spec ow q i xs : inv ow sq q -> i <= cnt q ->
  inv ow sq (insert_items_general ow jk sq q i xs) /\
  abs (insert_items_general ow jk sq q i xs) = l0_insert_at (abs q) i xs.
Proof.
  intros I Hi. unfold insert_items_general. cbv zeta.
  set (n := length xs).
  destruct (ensure_size_spec jk sq ow q (cnt q + n) true 0 false I) as (I2 & A2 & _).
  set (q2 := ensure_size ow jk sq q (cnt q + n) true 0 false) in *.
  rewrite l0_resize_grow in A2 by (rewrite abs_length; lia). rewrite abs_length in A2.
  replace (cnt q + n - cnt q) with n in A2 by lia.
  assert (C2 : cnt q2 = cnt q + n) by (rewrite <- (abs_length q2), A2; autorewrite with nthdb; lia).
  destruct (fold_copy_spec sq ow (fun k => k + n) (fun k => k) (rev (seq i (cnt q - i))) q2 I2) as (K1&_&K5).
  { intros k Hk. apply in_rev, in_seq in Hk. lia. }
  cbv beta in K1, K5.
  (* the items in front of the insertion point stay, those behind it move up by n *)
  set (A := firstn i (abs q)). set (B := skipn i (abs q)).
  assert (LA : i = length A) by (subst A; autorewrite with nthdb; lia).
  assert (LB : cnt q - i = length B) by (subst B; autorewrite with nthdb; lia).
  rewrite A2, <- (firstn_skipn i (abs q)), <- app_assoc in K5. fold A B in K5.
  rewrite (shift_up_m_app n A B (repeat 0%Z n) i (cnt q - i) LA LB (repeat_length _ _)) in K5.
  apply (write_from_mid ow xs _ A (firstn n (B ++ repeat 0%Z n)) B i K1 K5 LA).
  autorewrite with nthdb. lia.
Qed.

Lemma insert_items_at_spec ow q i xs : inv ow sq q ->
  inv ow sq (insert_items_at ow jk sq q i xs) /\
  abs (insert_items_at ow jk sq q i xs) = l0_insert_at (abs q) (Nat.min i (cnt q)) xs.
Proof.
  intros I. unfold insert_items_at. cbv zeta.
  set (i' := Nat.min i (cnt q)). assert (Hi : i' <= cnt q) by (subst i'; lia).
  destruct xs as [|x [|y t]].
  - split; [assumption|]. unfold l0_insert_at. cbn [app]. rewrite firstn_skipn. reflexivity.
  - destruct (i' =? 0) eqn:E0.
    + destruct (add_head_spec jk sq ow q x I) as [J1 J2]. split; [assumption|].
      rewrite J2. replace i' with 0 by lia. reflexivity.
    + destruct (i' =? cnt q) eqn:E1.
      * destruct (add_tail_spec jk sq ow q x I) as [J1 J2]. split; [assumption|].
        rewrite J2. replace i' with (cnt q) by lia. unfold l0_insert_at.
        rewrite firstn_abs_all, skipn_all2, app_nil_r by (rewrite ?abs_length; lia). reflexivity.
      * exact (insert_items_general_spec ow q i' [x] I Hi).
  - exact (insert_items_general_spec ow q i' (x :: y :: t) I Hi).
Qed.

Lemma firstn_S_snoc (l : list Z) k : k < length l -> firstn (S k) l = firstn k l ++ [nth k l 0%Z].
Proof.
  intros H. apply (list_ext _ _ 0%Z); autorewrite with nthdb; cbn [length]; [lia|].
  intros i Hi. autorewrite with nthdb. cbn [length]. dif; fin.
Qed.

(* one step of a compaction loop (RemoveAllInstancesOf, RemoveSortedDuplicateItems): the items 0 .. k-1 of l have been
   read and w <= k of them kept in front; item k is read, and, when it is kept, written to index w *)
Lemma compact_step ow g (l : list Z) w k : inv ow sq g -> cnt g = length l -> w <= k < length l ->
  skipn k (abs g) = skipn k l ->
  getu g k = nth k l 0%Z /\ skipn (S k) (abs g) = skipn (S k) l /\
  let g' := if w <? k then setu g w (getu g k) else g in
  inv ow sq g' /\ cnt g' = length l /\ firstn (w + 1) (abs g') = firstn w (abs g) ++ [getu g k] /\
  skipn (S k) (abs g') = skipn (S k) l.
Proof.
  intros I C Hk S1.
  assert (V : getu g k = nth k l 0%Z).
  { rewrite <- (nth_abs g k 0%Z) by lia.
    replace (nth k (abs g) 0%Z) with (nth 0 (skipn k (abs g)) 0%Z) by (rewrite nth_skipn'; f_equal; lia).
    rewrite S1, nth_skipn'. f_equal. lia. }
  assert (S2 : skipn (S k) (abs g) = skipn (S k) l).
  { replace (S k) with (k + 1) by lia. rewrite <- (skipn_skipn' 1 k (abs g)), <- (skipn_skipn' 1 k l), S1. reflexivity. }
  split; [exact V|]. split; [exact S2|]. destruct (w <? k) eqn:E.
  - split; [apply inv_setu; [assumption|lia]|]. split; [rewrite cnt_setu; exact C|].
    rewrite (abs_setu ow sq) by (assumption || lia). split.
    + apply (list_ext _ _ 0%Z); autorewrite with nthdb; cbn [length]; [lia|].
      intros i Hi. autorewrite with nthdb. cbn [length]. dif; fin.
    + rewrite <- S2. apply (list_ext _ _ 0%Z); autorewrite with nthdb; [reflexivity|].
      intros i Hi. autorewrite with nthdb. dif; fin.
  - assert (w = k) by lia. subst w. split; [assumption|]. split; [assumption|]. split; [|exact S2].
    replace (k + 1) with (S k) by lia. rewrite (firstn_S_snoc (abs g) k) by (rewrite abs_length; lia).
    rewrite nth_abs by lia. reflexivity.
Qed.

Lemma rai_loop_spec ow q x k : inv ow sq q -> k <= cnt q ->
  let s := fold_left (rai_step x) (seq 0 k) (q, 0) in
  inv ow sq (fst s) /\ cnt (fst s) = cnt q /\ snd s <= k /\
  firstn (snd s) (abs (fst s)) = filter (fun y => negb (Z.eqb y x)) (firstn k (abs q)) /\
  skipn k (abs (fst s)) = skipn k (abs q).
Proof.
  intros I. induction k as [|k IH]; intros Hk.
  - cbn [seq fold_left fst snd firstn filter]. split; [assumption|]. repeat split; lia.
  - rewrite seq_S, fold_left_app. cbn [fold_left Nat.add].
    destruct (IH ltac:(lia)) as (I1 & C1 & W1 & F1 & S1).
    destruct (fold_left (rai_step x) (seq 0 k) (q, 0)) as [g w]. cbn [fst snd] in *.
    destruct (compact_step ow g (abs q) w k I1) as (V & S2 & K); rewrite ?abs_length; try lia; try assumption.
    rewrite (firstn_S_snoc (abs q) k) by (rewrite abs_length; lia). rewrite filter_app, <- V, <- F1. cbn [filter].
    unfold rai_step. destruct (Z.eqb (getu g k) x); cbn [negb fst snd].
    + rewrite app_nil_r. split; [assumption|]. repeat split; (assumption || lia).
    + destruct K as (K1 & K2 & K3 & K4). rewrite abs_length in K2. split; [exact K1|]. split; [exact K2|]. split; [lia|].
      split; assumption.
Qed.

Lemma remove_all_instances_spec ow q x : inv ow sq q ->
  let r := remove_all_instances ow q x in
  inv ow sq (fst r) /\ abs (fst r) = filter (fun y => negb (Z.eqb y x)) (abs q) /\
  snd r = length (filter (fun y => Z.eqb y x) (abs q)).
Proof.
  intros I r. subst r. unfold remove_all_instances.
  destruct (rai_loop_spec ow q x (cnt q) I (le_n _)) as (I1 & C1 & W1 & F1 & _).
  destruct (fold_left (rai_step x) (seq 0 (cnt q)) (q, 0)) as [g w]. cbn [fst snd] in *.
  rewrite (firstn_abs_all q (cnt q)) in F1 by lia.
  assert (HL : length (filter (fun y => Z.eqb y x) (abs q)) + w = cnt q).
  { pose proof (filter_split_length (fun y => Z.eqb y x) (abs q)) as H. rewrite abs_length in H.
    rewrite <- F1 in H. rewrite firstn_length', abs_length in H. lia. }
  destruct (iter_remove_tail sq ow (cnt q - w) g I1 ltac:(lia)) as [K1 K2].
  split; [assumption|]. split; [|lia].
  rewrite K2, <- F1. f_equal. lia.
Qed.

Lemma normalize_rotate ow q : inv ow sq q -> 0 < cnt q ->
  let q' := mkQ (st q) (skipn (head q) (arr q) ++ firstn (head q) (arr q)) (cnt q) 0 (cnt q - 1) (inl q) in
  inv ow sq q' /\ abs q' = abs q.
Proof.
  intros I Hc q'. pose proof (inv_cnt _ _ q I) as Hn. pose proof (inv_hd _ _ q I Hc) as Hh.
  assert (Q : qsize q' = qsize q).
  { unfold qsize, q'. cbn [arr]. autorewrite with nthdb. unfold qsize in Hh. lia. }
  assert (G : forall i, i < qsize q -> getu q' i = getu q i).
  { intros i Hi. rewrite getu_head0; [|reflexivity|lia]. unfold q'. cbn [arr].
    autorewrite with nthdb. unfold getu, intern, qsize in *. cbv zeta. dif; fin. }
  split.
  - apply (inv_window ow sq q); try reflexivity; try assumption; cbn [cnt head tail q'].
    + lia.
    + intros _. rewrite intern_head0; [reflexivity|reflexivity|lia].
    + intros Ho i Hi. rewrite G by lia. apply (inv_clean _ _ q I Ho). lia.
  - apply abs_congr; [reflexivity|]. intros i Hi. apply G. lia.
Qed.

(* the copy-into-the-gap branch: after k steps *)
Lemma normalize_gap_steps ow q start k :
  head q < qsize q -> cnt q <= qsize q -> k <= cnt q ->
  start + cnt q <= head q -> head q + cnt q > qsize q -> head q + cnt q <= qsize q + start ->
  let step := fun g i =>
       let v := getu q i in
       let g1 := set_raw g (start + i) v in
       if ow then set_raw g1 (intern q i) dflt else g1 in
  let g := fold_left step (seq 0 k) q in
  st g = st q /\ qsize g = qsize q /\ inl g = inl q /\
  forall s, s < qsize q ->
    nth s (arr g) dflt =
    if (start <=? s) && (s <? start + k) then getu q (s - start)
    else if ow && (extern q s <? k) then dflt else nth s (arr q) dflt.
Proof.
  intros Hh Hc Hk Hgap Hwrap Hst step. induction k as [|k IH].
  - cbn [seq fold_left]. repeat split. intros s Hs. rewrite andb_false_r. dif; fin.
  - intros g. subst g. rewrite seq_S, fold_left_app. cbn [fold_left Nat.add].
    destruct (IH ltac:(lia)) as (H1 & H2 & H4 & H3).
    set (g := fold_left step (seq 0 k) q) in *.
    unfold step. cbv beta zeta.
    assert (A : forall s, s < qsize q ->
              nth s (arr (set_raw g (start + k) (getu q k))) dflt =
              if s =? start + k then getu q k else nth s (arr g) dflt).
    { intros s Hs. cbn [arr set_raw]. rewrite nth_upd. unfold qsize in *. dif; fin. }
    destruct ow.
    + split; [exact H1|]. split; [rewrite !qsize_set_raw; exact H2|]. split; [exact H4|].
      intros s Hs. cbn [arr set_raw]. rewrite nth_upd, upd_length.
      change (nth s (upd (arr g) (start + k) (getu q k)) dflt)
        with (nth s (arr (set_raw g (start + k) (getu q k))) dflt).
      rewrite A, H3 by assumption. clear - Hh Hc Hk Hgap Hwrap Hst Hs H2.
      unfold extern, intern, qsize in *. cbv zeta. cbn [andb]. difh; fin.
    + split; [exact H1|]. split; [rewrite !qsize_set_raw; exact H2|]. split; [exact H4|].
      intros s Hs. rewrite A, H3 by assumption. cbn [andb]. dif; fin.
Qed.

Lemma normalize_spec ow q : inv ow sq q ->
  inv ow sq (normalize ow q) /\ abs (normalize ow q) = abs q.
Proof.
  intros I. unfold normalize.
  destruct (is_normalized q) eqn:En; [split; [assumption|reflexivity]|].
  unfold is_normalized in En.
  assert (Hc : 0 < cnt q) by lia. assert (Hw : tail q < head q) by lia.
  pose proof (inv_cnt _ _ q I) as Hn. pose proof (inv_hd _ _ q I Hc) as Hh.
  pose proof (inv_tail _ _ q I Hc) as Ht.
  destruct (cnt q * 2 <=? qsize q) eqn:E2;
    [|rewrite hsieh_rotate_ok by (unfold qsize in Hh; lia); apply normalize_rotate; assumption].
  cbv zeta.
  assert (Hwrap : head q + cnt q > qsize q) by (unfold intern in Ht; cbv zeta in Ht; difh; lia).
  assert (Htl : tail q = head q + cnt q - 1 - qsize q) by (unfold intern in Ht; cbv zeta in Ht; difh; lia).
  assert (Hgap : tail q + 1 + cnt q <= head q) by lia.
  destruct (normalize_gap_steps ow q (tail q + 1) (cnt q) Hh Hn ltac:(lia) Hgap Hwrap ltac:(lia)) as (H1 & H2 & H4 & H3).
  cbv zeta in H1, H2, H3, H4.
  set (g := fold_left _ (seq 0 (cnt q)) q) in *.
  set (q' := mkQ (st g) (arr g) (cnt q) (tail q + 1) (tail q + 1 + cnt q - 1) (inl g)).
  assert (Q : qsize q' = qsize q) by exact H2.
  assert (G : forall i, i < cnt q -> getu q' i = getu q i).
  { intros i Hi. unfold getu at 1. unfold intern. rewrite Q. cbn [head arr q']. cbv zeta.
    replace (tail q + 1 + i <? qsize q) with true by lia.
    rewrite H3 by lia. replace (tail q + 1 + i - (tail q + 1)) with i by lia. dif; fin. }
  split.
  - apply (inv_window ow sq q); try assumption; cbn [cnt head tail q'].
    + lia.
    + intros _. unfold intern. rewrite Q. cbn [head q']. cbv zeta. dif; lia.
    + intros Ho i Hi. rewrite <- Q in Hi. revert Ho i Hi. change (clean ow q').
      apply clean_of_slots; rewrite ?Q; cbn [cnt head q']; try lia.
      intros Ho s Hs Hout. cbn [arr q']. rewrite H3 by assumption.
      unfold in_win in Hout. rewrite Q in Hout. cbn [cnt head q'] in Hout.
      rewrite Ho. cbn [andb].
      destruct ((tail q + 1 <=? s) && (s <? tail q + 1 + cnt q)) eqn:E3; [exfalso; difh; lia|].
      destruct (extern q s <? cnt q) eqn:E4; [reflexivity|].
      apply (clean_slots _ _ q I Ho s Hs).
      destruct (intern_extern q s Hh Hs) as [L E]. rewrite <- E, in_win_intern by assumption. lia.
  - apply abs_congr; [reflexivity|]. exact G.
Qed.

End Ops3.
