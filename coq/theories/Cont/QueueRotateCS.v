(* C16 -- the rotations by cycles really rotate: Merge's ([rotate_cs_ok]) and Normalize's ([hsieh_rotate_ok]).  Both walk
   the orbits of q |-> (q + s) mod m with the same inner loop ([walk], [orbit_walk]). *)
From Coq Require Import List Arith ZArith Bool Lia ZifyBool.
From Muscle Require Import Cont.QueueModel Cont.QueueLemmas.
Import ListNotations.
Local Open Scope nat_scope.

Lemma NoDup_map_seq {B} (f : nat -> B) n : forall a,
  (forall i j, a <= i < j -> j < a + n -> f i <> f j) -> NoDup (map f (seq a n)).
Proof.
  induction n as [|n IH]; intros a H; cbn [seq map]; constructor.
  - intros Hin. apply in_map_iff in Hin. destruct Hin as (j & E & Hj). apply in_seq in Hj.
    apply (H a j); [lia|lia|symmetry; exact E].
  - apply IH. intros i j Hi Hj. apply H; lia.
Qed.

Lemma add_mod_step q s m : q < m -> s < m -> (q + s) mod m = if s <? m - q then q + s else q + s - m.
Proof.
  intros Hq Hs. destruct (s <? m - q) eqn:E.
  - apply Nat.ltb_lt in E. apply Nat.mod_small. lia.
  - apply Nat.ltb_ge in E. symmetry. apply (Nat.mod_unique _ _ 1); lia.
Qed.

Lemma add_mod_cancel x y m : x < m -> y < m -> (x + y) mod m = x -> y = 0.
Proof. intros Hx Hy H. rewrite add_mod_step in H by assumption. destruct (y <? m - x) eqn:E; [lia|apply Nat.ltb_ge in E; lia]. Qed.

Lemma mod_mod_divide a m g : g <> 0 -> m <> 0 -> Nat.divide g m -> (a mod m) mod g = a mod g.
Proof.
  intros Hg Hm [c Hc].
  assert (E : a = a mod m + (c * (a / m)) * g) by (pose proof (Nat.div_mod a m Hm); nia).
  rewrite E at 2. symmetry. apply Nat.mod_add. exact Hg.
Qed.

Section Orbit.
Variables (m s : nat).
Hypothesis Hs : 0 < s < m.
Definition og := Nat.gcd m s.
Definition oT := m / og.
Definition posn (n i : nat) : nat := (n + i * s) mod m.

Lemma og_pos : 0 < og.
Proof.
  unfold og. destruct (Nat.gcd m s) eqn:E; [|lia]. pose proof (Nat.gcd_divide_l m s) as [c Hc]. rewrite E in Hc. lia.
Qed.

Lemma m_eq : m = og * oT.
Proof.
  unfold oT. apply Nat.div_exact; [pose proof og_pos; lia|]. apply Nat.mod_divide; [pose proof og_pos; lia|].
  apply Nat.gcd_divide_l.
Qed.

Lemma s_eq : s = og * (s / og).
Proof.
  apply Nat.div_exact; [pose proof og_pos; lia|]. apply Nat.mod_divide; [pose proof og_pos; lia|].
  apply Nat.gcd_divide_r.
Qed.

Lemma oT_pos : 0 < oT.
Proof. pose proof m_eq. destruct oT; [|lia]. lia. Qed.

Lemma og_le : og <= m - s.
Proof.
  pose proof m_eq as E1. pose proof s_eq as E2. pose proof og_pos.
  assert (s / og < oT) by nia. nia.
Qed.

Lemma oT_mult : (oT * s) mod m = 0.
Proof.
  apply Nat.mod_divide; [lia|]. exists (s / og). pose proof m_eq as E1. pose proof s_eq as E2.
  remember (s / og) as a. remember oT as t. nia.
Qed.

Lemma oT_min i : 0 < i < oT -> (i * s) mod m <> 0.
Proof.
  (* m | i*s gives oT | i*(s/og); oT and s/og are coprime, so oT | i (Gauss), impossible below oT *)
  intros Hi H0. apply Nat.mod_divide in H0; [|lia]. destruct H0 as [c Hc].
  pose proof m_eq as E1. pose proof s_eq as E2. pose proof og_pos as Hg.
  assert (Hc' : i * (s / og) = c * oT) by nia.
  assert (G : Nat.gcd oT (s / og) = 1) by (unfold oT; apply Nat.gcd_div_gcd; [unfold og in *; lia|reflexivity]).
  assert (D : Nat.divide oT (s / og * i)) by (exists c; lia).
  apply Nat.gauss in D; [|exact G]. destruct D as [d Hd]. destruct d; nia.
Qed.

Lemma posn_lt n i : posn n i < m.
Proof. apply Nat.mod_upper_bound. lia. Qed.

Lemma posn_0 n : n < m -> posn n 0 = n.
Proof. intros H. unfold posn. rewrite Nat.add_0_r. apply Nat.mod_small. exact H. Qed.

Lemma posn_S n i : posn n (S i) = (posn n i + s) mod m.
Proof. unfold posn. rewrite Nat.add_mod_idemp_l by lia. f_equal. lia. Qed.

Lemma posn_T n : n < m -> posn n oT = n.
Proof.
  intros H. unfold posn. pose proof oT_mult as HT. apply Nat.mod_divide in HT; [|lia]. destruct HT as [c Hc].
  rewrite Hc, Nat.mod_add by lia. apply Nat.mod_small. exact H.
Qed.

Lemma posn_inj n i j : i < j < oT -> posn n i <> posn n j.
Proof.
  intros Hij E. unfold posn in E.
  replace (n + j * s) with ((n + i * s) + (j - i) * s) in E by nia.
  rewrite (Nat.add_mod (n + i * s)) in E by lia. symmetry in E.
  apply add_mod_cancel in E; try (apply Nat.mod_upper_bound; lia).
  apply (oT_min (j - i)); [lia|exact E].
Qed.

Lemma posn_class n i : n < og -> posn n i mod og = n.
Proof.
  intros Hn. unfold posn. pose proof og_pos.
  rewrite mod_mod_divide; [|lia|lia|apply Nat.gcd_divide_l].
  pose proof s_eq as E2. rewrite E2. replace (n + i * (og * (s / og))) with (n + (i * (s / og)) * og) by lia.
  rewrite Nat.mod_add by lia. apply Nat.mod_small. exact Hn.
Qed.

Lemma orbit_cover n q : n < og -> q < m -> q mod og = n -> exists i, i < oT /\ posn n i = q.
Proof.
  (* the oT distinct points of the orbit lie in the class of n mod og, which has oT members: pigeonhole *)
  intros Hn Hq Hc. pose proof og_pos as Hg. pose proof m_eq as E1.
  set (L := map (posn n) (seq 0 oT)). set (C := map (fun r => n + og * r) (seq 0 oT)).
  assert (ND : NoDup L).
  { apply NoDup_map_seq. intros i j Hi Hj. apply posn_inj. lia. }
  assert (IN : incl L C).
  { intros x Hx. apply in_map_iff in Hx. destruct Hx as (i & <- & Hi). apply in_map_iff.
    exists (posn n i / og). pose proof (posn_class n i Hn) as Hcl. pose proof (posn_lt n i) as Hlt.
    pose proof (Nat.div_mod (posn n i) og ltac:(lia)) as Hd. split; [lia|].
    apply in_seq. split; [lia|]. apply Nat.div_lt_upper_bound; lia. }
  assert (IN' : incl C L).
  { apply NoDup_length_incl; [exact ND| |exact IN]. unfold L, C. rewrite !map_length. lia. }
  assert (Hq' : In q C).
  { apply in_map_iff. exists (q / og). pose proof (Nat.div_mod q og ltac:(lia)) as Hd. split; [lia|].
    apply in_seq. split; [lia|]. apply Nat.div_lt_upper_bound; lia. }
  apply IN' in Hq'. apply in_map_iff in Hq'. destruct Hq' as (i & E & Hi). apply in_seq in Hi.
  exists i. split; [lia|exact E].
Qed.

End Orbit.

(* gcd by the remainder loop *)
Lemma gcd_unfold n m : n <> 0 -> Nat.gcd n m = Nat.gcd (m mod n) n.
Proof. intros H. destruct n; [lia|]. reflexivity. Qed.

Lemma gcd_loop_spec fuel : forall m n, n < fuel -> gcd_loop m n fuel = Nat.gcd n m.
Proof.
  induction fuel as [|fuel IH]; intros m n H; [lia|]. cbn [gcd_loop].
  destruct (n =? 0) eqn:E.
  - assert (n = 0) by lia. subst n. reflexivity.
  - assert (Hn : n <> 0) by lia. rewrite IH by (pose proof (Nat.mod_upper_bound m n Hn); lia).
    symmetry. apply gcd_unfold. exact Hn.
Qed.

(* the inner loop that Merge's rotation and Normalize share: l[p1] := l[p2]; p1 := p2; p2 := next p2 until p2 is back
   at the start; c counts the moves *)
Fixpoint walk (next : nat -> nat) (l : list Z) (start p1 p2 c fuel : nat) : list Z * nat * nat :=
  match fuel with
  | 0 => (l, p1, c)
  | S f => if p2 =? start then (l, p1, c)
           else walk next (upd l p1 (nth p2 l 0%Z)) start p2 (next p2) (c + 1) f
  end.

Lemma cycle_loop_walk fc sc shift start c fuel : forall l p1 p2,
  cycle_loop l fc sc shift start p1 p2 fuel =
  fst (walk (fun p => if shift <? sc - p then p + shift else fc + (shift - (sc - p))) l start p1 p2 c fuel).
Proof.
  revert c. induction fuel as [|f IH]; intros c l p1 p2; cbn [cycle_loop walk]; [reflexivity|].
  destruct (p2 =? start); [reflexivity|]. apply IH.
Qed.

Lemma hs_inner_walk hd v m fuel : forall a t tp c, length a = m ->
  hs_inner a hd v t tp c fuel = walk (fun p => if m <=? p + hd then p + hd - m else p + hd) a v t tp c fuel.
Proof.
  induction fuel as [|f IH]; intros a t tp c Ha; cbn [hs_inner walk]; [reflexivity|].
  destruct (tp =? v); [reflexivity|]. cbv zeta. rewrite Ha. apply IH. rewrite upd_length. exact Ha.
Qed.

(* along distinct positions pos 0 .. pos (T-1) closed by [next], the walk from pos 0, completed by l[p1] := the value
   saved from pos 0, moves the value at pos (i+1) to pos i and nothing else *)
Section Walk.
Variables (next pos : nat -> nat) (T : nat) (l0 : list Z).
Hypothesis HT : 0 < T.
Hypothesis pos_inj : forall i j, i < j < T -> pos i <> pos j.
Hypothesis pos_T : pos T = pos 0.
Hypothesis pos_lt : forall i, i < T -> pos i < length l0.
Hypothesis pos_next : forall i, 0 < i < T -> next (pos i) = pos (i + 1).

Lemma walk_spec k : forall t l c fuel, t + k = T - 1 -> k < fuel -> length l = length l0 ->
  (forall i, i < t -> nth (pos i) l 0%Z = nth (pos (i + 1)) l0 0%Z) ->
  (forall q, (forall i, i < t -> q <> pos i) -> nth q l 0%Z = nth q l0 0%Z) ->
  exists l', walk next l (pos 0) (pos t) (pos (t + 1)) c fuel = (l', pos (T - 1), c + k) /\ length l' = length l0 /\
    (forall i, i < T - 1 -> nth (pos i) l' 0%Z = nth (pos (i + 1)) l0 0%Z) /\
    (forall q, (forall i, i < T - 1 -> q <> pos i) -> nth q l' 0%Z = nth q l0 0%Z).
Proof.
  induction k as [|k IH]; intros t l c fuel Ht Hf Hl I1 I2; (destruct fuel as [|fuel]; [lia|]); cbn [walk].
  - assert (t = T - 1) by lia. subst t. replace (T - 1 + 1) with T by lia.
    rewrite pos_T, Nat.eqb_refl, Nat.add_0_r. exists l. auto.
  - assert (Hne : pos (t + 1) <> pos 0) by (intros E; apply (pos_inj 0 (t + 1)); [lia|symmetry; exact E]).
    replace (pos (t + 1) =? pos 0) with false by lia.
    rewrite pos_next by lia. rewrite (I2 (pos (t + 1))) by (intros i Hi E; apply (pos_inj i (t + 1)); [lia|symmetry; exact E]).
    replace (c + S k) with (c + 1 + k) by lia.
    apply IH; try lia.
    + rewrite upd_length. exact Hl.
    + intros i Hi. rewrite nth_upd. destruct (Nat.eq_dec i t) as [->|Hit].
      * rewrite Nat.eqb_refl. replace (pos t <? length l) with true by (pose proof (pos_lt t); lia). reflexivity.
      * replace (pos i =? pos t) with false by (assert (pos i <> pos t) by (apply pos_inj; lia); lia).
        cbn [andb]. apply I1. lia.
    + intros q Hq. rewrite nth_upd. replace (q =? pos t) with false by (assert (q <> pos t) by (apply Hq; lia); lia).
      cbn [andb]. apply I2. intros i Hi. apply Hq. lia.
Qed.

Lemma walk_cycle c fuel : T - 1 < fuel ->
  let '(l', p1, c') := walk next l0 (pos 0) (pos 0) (pos 1) c fuel in
  let l'' := upd l' p1 (nth (pos 0) l0 0%Z) in
  c' = c + (T - 1) /\ length l'' = length l0 /\
  (forall i, i < T -> nth (pos i) l'' 0%Z = nth (pos (i + 1)) l0 0%Z) /\
  (forall q, (forall i, i < T -> q <> pos i) -> nth q l'' 0%Z = nth q l0 0%Z).
Proof.
  intros Hf. destruct (walk_spec (T - 1) 0 l0 c fuel) as (l' & E & L & W1 & W2); try lia; try reflexivity.
  change (pos (0 + 1)) with (pos 1) in E. rewrite E.
  split; [reflexivity|]. split; [rewrite upd_length; exact L|]. split.
  - intros i Hi. rewrite nth_upd. destruct (Nat.eq_dec i (T - 1)) as [->|Hne].
    + rewrite Nat.eqb_refl. replace (pos (T - 1) <? length l') with true by (pose proof (pos_lt (T - 1)); lia).
      replace (T - 1 + 1) with T by lia. rewrite pos_T. reflexivity.
    + replace (pos i =? pos (T - 1)) with false by (assert (pos i <> pos (T - 1)) by (apply pos_inj; lia); lia).
      apply W1. lia.
  - intros q Hq. rewrite nth_upd. replace (q =? pos (T - 1)) with false by (assert (q <> pos (T - 1)) by (apply Hq; lia); lia).
    apply W2. intros i Hi. apply Hq. lia.
Qed.
End Walk.

Definition pos (fc m s n i : nat) : nat := fc + posn m s n i.

Lemma class_step m s q : 0 < s < m -> ((q + s) mod m) mod og m s = q mod og m s.
Proof.
  intros Hs. pose proof (og_pos m s Hs) as Hg.
  rewrite mod_mod_divide; [|lia|lia|apply Nat.gcd_divide_l].
  pose proof (s_eq m s Hs) as E. rewrite E at 1.
  replace (q + og m s * (s / og m s)) with (q + (s / og m s) * og m s) by lia. apply Nat.mod_add. lia.
Qed.

Lemma orbit_class l l' fc m s n : 0 < s < m -> n < og m s ->
  (forall i, i < oT m s -> nth (pos fc m s n i) l' 0%Z = nth (pos fc m s n (i + 1)) l 0%Z) ->
  (forall q, (forall i, i < oT m s -> q <> pos fc m s n i) -> nth q l' 0%Z = nth q l 0%Z) ->
  (forall q, q < m -> nth (fc + q) l' 0%Z =
     if q mod og m s =? n then nth (fc + (q + s) mod m) l 0%Z else nth (fc + q) l 0%Z) /\
  (forall p, p < fc \/ fc + m <= p -> nth p l' 0%Z = nth p l 0%Z).
Proof.
  intros Hs Hn R2 R3. split.
  - intros q Hq. destruct (q mod og m s =? n) eqn:E.
    + destruct (orbit_cover m s Hs n q Hn Hq ltac:(lia)) as (i & Hi & Ei).
      specialize (R2 i Hi). unfold pos in R2. rewrite Ei in R2. rewrite R2.
      replace (i + 1) with (S i) by lia. rewrite posn_S by exact Hs. rewrite Ei. reflexivity.
    + apply R3. intros i Hi E'. unfold pos in E'. assert (q = posn m s n i) by lia. subst q.
      rewrite posn_class in E by assumption. lia.
  - intros p Hp. apply R3. intros i Hi E'. unfold pos in E'. pose proof (posn_lt m s Hs n i). lia.
Qed.

Lemma orbit_walk next l fc m s n c fuel : 0 < s < m -> fc + m <= length l -> n < og m s -> m <= fuel ->
  (forall q, q < m -> next (fc + q) = fc + (q + s) mod m) ->
  let '(l', p1, c') := walk next l (fc + n) (fc + n) (fc + n + s) c fuel in
  let l'' := upd l' p1 (nth (fc + n) l 0%Z) in
  c' = c + (oT m s - 1) /\ length l'' = length l /\
  (forall q, q < m -> nth (fc + q) l'' 0%Z =
     if q mod og m s =? n then nth (fc + (q + s) mod m) l 0%Z else nth (fc + q) l 0%Z) /\
  (forall p, p < fc \/ fc + m <= p -> nth p l'' 0%Z = nth p l 0%Z).
Proof.
  intros Hs Hl Hn Hf Hnext. pose proof (og_le m s Hs) as Hgle. pose proof (oT_pos m s Hs) as HT.
  assert (Hm : oT m s <= m) by (pose proof (m_eq m s Hs); pose proof (og_pos m s Hs); nia).
  assert (E0 : pos fc m s n 0 = fc + n) by (unfold pos; rewrite posn_0 by lia; reflexivity).
  assert (E1 : pos fc m s n 1 = fc + n + s).
  { unfold pos, posn. cbn [Nat.mul]. rewrite Nat.add_0_r, Nat.mod_small by lia. lia. }
  pose proof (walk_cycle next (pos fc m s n) (oT m s) l HT) as W.
  specialize (W ltac:(intros i j H E; unfold pos in E; apply (posn_inj m s Hs n i j H); lia)
                ltac:(unfold pos; rewrite posn_T, posn_0 by lia; reflexivity)
                ltac:(intros i _; unfold pos; pose proof (posn_lt m s Hs n i); lia)).
  specialize (W ltac:(intros i _; unfold pos; rewrite Hnext by (apply posn_lt; exact Hs);
                      replace (i + 1) with (S i) by lia; rewrite posn_S by exact Hs; reflexivity) c fuel ltac:(lia)).
  rewrite E0, E1 in W.
  destruct (walk next l (fc + n) (fc + n) (fc + n + s) c fuel) as [[l' p1] c']. destruct W as (W1 & W2 & W3 & W4).
  split; [exact W1|]. split; [exact W2|]. apply (orbit_class l _ fc m s n Hs Hn W3 W4).
Qed.

Lemma rotate_cycle_class l fc m s n : 0 < s < m -> fc + m <= length l -> n < og m s ->
  let l' := rotate_cycle l fc (fc + s) (fc + m) n in
  length l' = length l /\
  (forall q, q < m -> nth (fc + q) l' 0%Z =
     if q mod og m s =? n then nth (fc + (q + s) mod m) l 0%Z else nth (fc + q) l 0%Z) /\
  (forall p, p < fc \/ fc + m <= p -> nth p l' 0%Z = nth p l 0%Z).
Proof.
  intros Hs Hl Hn. unfold rotate_cycle. cbv zeta. replace (fc + s - fc) with s by lia. replace (fc + m - fc) with m by lia.
  rewrite (cycle_loop_walk fc (fc + m) s (fc + n) 0 m). unfold at_.
  pose proof (orbit_walk (fun p => if s <? fc + m - p then p + s else fc + (s - (fc + m - p))) l fc m s n 0 m Hs Hl Hn (le_n _))
    as W. cbv beta in W.
  destruct (walk _ l (fc + n) (fc + n) (fc + n + s) 0 m) as [[l' p1] c']. cbn [fst]. apply W.
  intros q Hq. rewrite add_mod_step by lia. replace (fc + m - (fc + q)) with (m - q) by lia.
  destruct (s <? m - q) eqn:E; lia.
Qed.

(* invariant of Merge's outer loop: the classes >= c mod og are rotated, the others untouched *)
Lemma rotate_fold l0 fc m s : 0 < s < m -> fc + m <= length l0 -> forall c l, c <= og m s -> length l = length l0 ->
  (forall q, q < m -> nth (fc + q) l 0%Z =
     if c <=? q mod og m s then nth (fc + (q + s) mod m) l0 0%Z else nth (fc + q) l0 0%Z) ->
  (forall p, p < fc \/ fc + m <= p -> nth p l 0%Z = nth p l0 0%Z) ->
  let l' := fold_left (fun l n => rotate_cycle l fc (fc + s) (fc + m) n) (rev (seq 0 c)) l in
  length l' = length l0 /\
  (forall q, q < m -> nth (fc + q) l' 0%Z = nth (fc + (q + s) mod m) l0 0%Z) /\
  (forall p, p < fc \/ fc + m <= p -> nth p l' 0%Z = nth p l0 0%Z).
Proof.
  intros Hs Hl0. induction c as [|c IH]; intros l Hc Hl I1 I2.
  - cbn [seq rev fold_left]. split; [exact Hl|]. split; [|exact I2]. intros q Hq. rewrite I1 by exact Hq. reflexivity.
  - rewrite seq_S, rev_app_distr. cbn [rev app fold_left Nat.add].
    destruct (rotate_cycle_class l fc m s c Hs ltac:(lia) ltac:(lia)) as (R1 & R2 & R3).
    apply IH; [lia|lia| |].
    + intros q Hq. rewrite R2 by exact Hq. destruct (q mod og m s =? c) eqn:E.
      * assert (Hq' : (q + s) mod m < m) by (apply Nat.mod_upper_bound; lia).
        rewrite I1 by exact Hq'. rewrite class_step by exact Hs.
        replace (S c <=? q mod og m s) with false by lia. replace (c <=? q mod og m s) with true by lia. reflexivity.
      * rewrite I1 by exact Hq. replace (S c <=? q mod og m s) with (c <=? q mod og m s) by lia. reflexivity.
    + intros p Hp. rewrite R3 by exact Hp. apply I2. exact Hp.
Qed.

Lemma nth_rot (X Y S : list Z) q : 0 < length Y -> q < length X + length Y ->
  nth ((q + length X) mod (length X + length Y)) (X ++ Y ++ S) 0%Z = nth q (Y ++ X ++ S) 0%Z.
Proof. intros HY Hq. rewrite add_mod_step by lia. autorewrite with nthdb. dif; fin. Qed.

Theorem rotate_cs_ok : forall P X Y S fc pv sc,
  fc = length P -> pv = fc + length X -> sc = pv + length Y ->
  rotate_cs (P ++ X ++ Y ++ S) fc pv sc = P ++ Y ++ X ++ S.
Proof.
  intros P X Y S fc pv sc -> -> ->. unfold rotate_cs.
  destruct X as [|x X']; [cbn [length app]; rewrite Nat.add_0_r, Nat.eqb_refl; cbn [orb]; reflexivity|].
  destruct Y as [|y Y']; [cbn [length app]; rewrite Nat.add_0_r, Nat.eqb_refl, orb_true_r; reflexivity|].
  set (X := x :: X') in *. set (Y := y :: Y') in *.
  set (s := length X). set (m := length X + length Y). set (fc := length P).
  assert (Hx : 0 < s) by (subst s X; cbn [length]; lia). assert (Hy : 0 < length Y) by (subst Y; cbn [length]; lia).
  replace (fc + s =? fc) with false by lia. replace (fc + s =? fc + s + length Y) with false by lia. cbn [orb].
  assert (Hs : 0 < s < m) by lia.
  replace (fc + s + length Y - fc) with m by lia. replace (fc + s - fc) with s by lia.
  rewrite gcd_loop_spec by lia. rewrite Nat.gcd_comm. fold (og m s).
  replace (fc + s + length Y) with (fc + m) by lia.
  set (l0 := P ++ X ++ Y ++ S).
  assert (Hl0 : fc + m <= length l0) by (subst l0 fc m; repeat rewrite app_length; lia).
  destruct (rotate_fold l0 fc m s Hs Hl0 (og m s) l0 (le_n _) eq_refl) as (F1 & F2 & F3).
  { intros q Hq. replace (og m s <=? q mod og m s) with false; [reflexivity|].
    pose proof (Nat.mod_upper_bound q (og m s) ltac:(pose proof (og_pos m s Hs); lia)). lia. }
  { intros p _. reflexivity. }
  apply (list_ext _ _ 0%Z).
  - rewrite F1. subst l0. repeat rewrite app_length. lia.
  - intros p Hp. rewrite F1 in Hp. destruct (Nat.lt_ge_cases p fc) as [H1|H1]; [|destruct (Nat.lt_ge_cases p (fc + m)) as [H2|H2]].
    + rewrite F3 by (left; exact H1). subst l0 fc. rewrite !app_nth1 by exact H1. reflexivity.
    + replace p with (fc + (p - fc)) by lia. rewrite F2 by lia.
      subst l0 fc m s. rewrite !app_nth2_plus. apply nth_rot; lia.
    + rewrite F3 by (right; exact H2). subst l0 fc m s. autorewrite with nthdb. dif; fin.
Qed.

(* one pass of the outer loop: the cycle through slot v *)
Lemma hs_cycle_spec l s v c : 0 < s < length l -> v < og (length l) s ->
  let r := hs_inner l s v v (v + s) (c + 1) (length l) in
  let l' := upd (fst (fst r)) (snd (fst r)) (nth v l 0%Z) in
  snd r = c + oT (length l) s /\ length l' = length l /\
  (forall q, q < length l -> nth q l' 0%Z =
     if q mod og (length l) s =? v then nth ((q + s) mod length l) l 0%Z else nth q l 0%Z).
Proof.
  intros Hs Hv. rewrite (hs_inner_walk s v (length l)) by reflexivity. pose proof (oT_pos _ s Hs) as HT.
  pose proof (orbit_walk (fun p => if length l <=? p + s then p + s - length l else p + s) l 0 (length l) s v (c + 1)
                (length l) Hs (le_n _) Hv (le_n _)) as W. cbv beta in W. cbn [Nat.add] in W.
  specialize (W ltac:(intros q Hq; rewrite add_mod_step by lia; dif; lia)).
  destruct (walk _ l v v (v + s) (c + 1) (length l)) as [[l' p1] c']. cbn [fst snd].
  destruct W as (W1 & W2 & W3 & _). split; [lia|]. split; [exact W2|exact W3].
Qed.

(* invariant of Hsieh's outer loop: the classes < v mod og are rotated and c = v * oT slots have moved, so the
   test c < length stops exactly behind the last class *)
Lemma hs_outer_spec l0 s : 0 < s < length l0 -> forall d v l c fuel,
  v + d = og (length l0) s -> d < fuel -> c = v * oT (length l0) s -> length l = length l0 ->
  (forall q, q < length l0 -> nth q l 0%Z =
     if q mod og (length l0) s <? v then nth ((q + s) mod length l0) l0 0%Z else nth q l0 0%Z) ->
  let l' := hs_outer l s v c fuel in
  length l' = length l0 /\ forall q, q < length l0 -> nth q l' 0%Z = nth ((q + s) mod length l0) l0 0%Z.
Proof.
  intros Hs. set (m := length l0). pose proof (m_eq m s Hs) as Em. pose proof (og_pos m s Hs) as Hg.
  pose proof (oT_pos m s Hs) as HT.
  induction d as [|d IH]; intros v l c fuel Hv Hf Hc Hl I1; (destruct fuel as [|fuel]; [lia|]); cbn [hs_outer].
  - assert (v = og m s) by lia. subst v. replace (c <? length l) with false by (rewrite Hl; fold m; nia).
    split; [exact Hl|]. intros q Hq. rewrite I1 by exact Hq.
    replace (q mod og m s <? og m s) with true; [reflexivity|]. pose proof (Nat.mod_upper_bound q (og m s) ltac:(lia)). lia.
  - replace (c <? length l) with true by (rewrite Hl; fold m; nia).
    destruct (hs_cycle_spec l s v c ltac:(rewrite Hl; exact Hs) ltac:(rewrite Hl; fold m; lia)) as (K1 & K2 & K3).
    cbv zeta in K1, K2, K3. rewrite Hl in K1, K2, K3. fold m in K1, K2, K3. rewrite Hl. fold m.
    destruct (hs_inner l s v v (v + s) (c + 1) m) as [[a t] c']. cbn [fst snd] in *.
    apply IH; try lia.
    intros q Hq. rewrite K3 by exact Hq. destruct (q mod og m s =? v) eqn:E.
      * assert (Hq' : (q + s) mod m < m) by (apply Nat.mod_upper_bound; lia).
        rewrite I1 by exact Hq'. rewrite class_step by exact Hs.
        replace (q mod og m s <? v) with false by lia. replace (q mod og m s <? v + 1) with true by lia. reflexivity.
      * rewrite I1 by exact Hq. replace (q mod og m s <? v + 1) with (q mod og m s <? v) by lia. reflexivity.
Qed.

Theorem hsieh_rotate_ok a hd : 0 < hd < length a -> hsieh_rotate a hd = skipn hd a ++ firstn hd a.
Proof.
  intros Hs. unfold hsieh_rotate. pose proof (og_pos (length a) hd Hs) as Hg.
  assert (Hgm : og (length a) hd <= length a) by (pose proof (og_le (length a) hd Hs); lia).
  destruct (hs_outer_spec a hd Hs (og (length a) hd) 0 a 0 (length a + 1) ltac:(lia) ltac:(lia) ltac:(lia) eq_refl) as [F1 F2].
  { intros q Hq. reflexivity. }
  apply (list_ext _ _ 0%Z).
  - rewrite F1. autorewrite with nthdb. lia.
  - intros q Hq. rewrite F1 in Hq. rewrite F2 by exact Hq. rewrite add_mod_step by lia.
    autorewrite with nthdb. dif; fin.
Qed.
