(* C17 -- specifications of the producers (operations that return a new String): from [rep s l] and bounds on [lenN l]
   to [rep (f s) (f0 l)], so that the steps of a composed operation chain by [apply] (replace_multi_spec, whose result is
   optional, is stated over [abs]). *)
From Coq Require Import List NArith ZArith Bool Lia.
From Muscle Require Import Cont.StrL0 Cont.StrModel Cont.StrLemmas Cont.StrGrow Cont.StrCore Cont.StrOps Cont.StrL0Facts.
Import ListNotations.
Local Open Scope N_scope.


Section Prod.
Context {M TH PG OV jk : N} {P : str_params M TH PG OV jk}.
Local Set Default Proof Using "P".

Local Notation abs := (abs M).
Local Notation inv := (inv M).
Local Notation rep := (rep M).
Local Notation empty1 := (empty1 M jk).
Local Notation src_of := (src_of M).
Local Notation ctor_copy := (ctor_copy M TH PG OV jk true).
Local Notation ctor_sub := (ctor_sub M TH PG OV jk true).
Local Notation ctor_copy_pre := (ctor_copy_pre M TH PG OV jk true).
Local Notation with_insert := (with_insert M TH PG OV jk true).
Local Notation with_insert_ch := (with_insert_ch M TH PG OV jk true).
Local Notation padded1 := (padded1 M TH PG OV jk true).
Local Notation trimmed1 := (trimmed1 M TH PG OV jk true).
Local Notation case1 := (case1 M TH PG OV jk true).
Local Notation insert_aux := (insert_aux M TH PG OV jk true).
Local Notation plus_s := (plus_s M TH PG OV jk true).
Local Notation arg1 := (arg1 M TH PG OV jk true).
Local Notation without_suffix_loop := (without_suffix_loop M).
Local Notation without_prefix_loop := (without_prefix_loop M TH PG OV jk true).
Local Notation without_suffix_ch_loop := (without_suffix_ch_loop M).
Local Notation strip_digits_loop := (strip_digits_loop M).
Local Notation without_suffix_nc_loop := (without_suffix_nc_loop M).
Local Notation with_word := (with_word M TH PG OV jk true).
Local Notation indent_loop := (indent_loop M TH PG OV jk true).
Local Notation indented1 := (indented1 M TH PG OV jk true).
Local Notation esc_loop := (esc_loop M TH PG OV jk true).
Local Notation escaped1 := (escaped1 M TH PG OV jk true).
Local Notation multi_loop := (multi_loop M TH PG OV jk true).
Local Notation append_ch_times := (append_ch_times M TH PG OV jk true).
Local Notation float_text1 := (float_text1 M TH PG OV jk true).
Local Notation replace_multi1 := (replace_multi1 M TH PG OV jk true).
Local Notation append_s := (append_s M TH PG OV jk true).
Local Notation prealloc := (prealloc M TH PG OV jk true).
Local Notation set_cstr := (set_cstr M TH PG OV jk true).
Local Notation append_ch := (append_ch M TH PG OV jk true).
Local Notation append_c := (append_c M TH PG OV jk true).
Local Notation without_prefix_nc_loop := (without_prefix_nc_loop M TH PG OV jk true).

Lemma append_ch_rep r a ch : rep r a -> lenN a + 2 <= LIM -> rep (append_ch r ch) (a ++ [ch]).
Proof. intros R B. rewrite <- (rep_len r a R) in B. destruct R as [I <-]. now apply append_ch_spec. Qed.
Lemma append_s_rep r a o b : rep r a -> srep o b -> lenN a + lenN b + 1 <= LIM -> rep (append_s r (Some o)) (a ++ b).
Proof.
  intros R O B. rewrite <- (rep_len r a R), <- (srep_len o b O) in B. destruct R as [I <-], O as [O <-].
  apply (append_s_spec r (Some o)); trivial. split; trivial. unfold LIM in *. lia.
Qed.
Lemma append_c_rep r a x : rep r a -> nulfree a -> nulfree x -> lenN a + lenN x + 1 <= LIM -> rep (append_c r (CLit x)) (a ++ x).
Proof.
  intros R Fa Fx B. rewrite <- (rep_len r a R) in B. destruct R as [I <-].
  apply (append_c_spec r (CLit x)); trivial. split; trivial. unfold LIM in *. lia.
Qed.

(* the first byte of a terminated NUL-free source is NUL exactly when the source is empty *)
Lemma src_first o : src_ok o -> nulfree (src_bytes o) -> (nthN 0 (fst o) = 0 <-> snd o = 0).
Proof.
  intros [L Z] F. split.
  - intros H. destruct (N.eq_dec (snd o) 0) as [E|E]; trivial.
    assert (X : nthN 0 (src_bytes o) = 0) by (unfold src_bytes; rewrite nthN_takeN by lia; exact H).
    unfold src_bytes in *. destruct (takeN (snd o) (fst o)) as [|a t] eqn:D.
    + apply (f_equal lenN) in D. rewrite lenN_takeN, lenN_nil in D. lia.
    + inversion F; subst. rewrite nthN_cons_0 in X. congruence.
  - intros E. rewrite E in Z. exact Z.
Qed.

(* InsertCharsAux(idx, w(), n, 1) for a separate String w: the first [n] bytes of w go in *)
Lemma ins_rep r a idx w b n :
  rep r a -> srep w b -> nulfree b -> n <= lenN b -> lenN a + n + 1 <= LIM ->
  rep (snd (insert_aux r idx (Some (fst w)) false n 1)) (l0_insert a idx (takeN n b)).
Proof.
  intros R W Fb Hn B. rewrite <- (rep_len r a R) in B. rewrite <- (srep_len w b W) in Hn.
  destruct R as [I <-], W as [W <-].
  destruct (N.eq_dec n 0) as [->|En].
  { unfold StrModel.insert_aux. rewrite orb_true_r, takeN_0. cbn [snd]. split; trivial.
    unfold l0_insert. cbn [app]. symmetry. apply takeN_dropN. }
  assert (N0 : nthN 0 (fst w) <> 0) by (intros H; apply (src_first w W Fb) in H; lia).
  destruct (insert_aux_ext r idx (fst w) false n 1 I N0 En) as (s' & -> & R'); [destruct W; lia|lia|].
  rewrite concat_rep1 in R'. unfold src_bytes. rewrite takeN_takeN. replace (N.min n (snd w)) with n by lia. exact R'.
Qed.


Lemma with_insert_spec s l idx o b max :
  rep s l -> srep o b -> nulfree b -> lenN l + lenN b + 1 <= LIM ->
  rep (with_insert s idx o max) (l0_insert l idx (takeN max b)).
Proof.
  intros R O Fb B. unfold StrModel.with_insert. rewrite (srep_len o b O).
  rewrite <- (takeN_min_len max b), N.min_comm. apply ins_rep; trivial; try lia.
  apply copy_rep; [apply srep_of; eassumption|lia].
Qed.


Lemma with_insert_ch_spec s l idx ch count :
  rep s l -> lenN l + count + 1 <= LIM ->
  rep (with_insert_ch s idx ch count) (if ch =? 0 then l else l0_insert l idx (repN ch count)).
Proof.
  intros R B. unfold StrModel.with_insert_ch.
  assert (Rc : rep (ctor_copy_pre (src_of s) count) l) by (apply copy_pre_rep; [apply srep_of; eassumption|lia]).
  rewrite <- (rep_len _ l Rc) in B. destruct Rc as [Ic <-]. set (c := ctor_copy_pre (src_of s) count) in *.
  destruct (ch =? 0) eqn:E0.
  { unfold StrModel.insert_aux. rewrite nthN_cons_0, E0. now split. }
  apply N.eqb_neq in E0.
  destruct (insert_aux_ext c idx [ch] false 1 count Ic) as (s' & -> & R'); rewrite ?nthN_cons_0, ?lenN_cons, ?lenN_nil; try lia.
  rewrite (takeN_all 1 [ch]), concat_rep_single in R' by (rewrite lenN_cons, lenN_nil; lia). exact R'.
Qed.

Lemma padded_spec s l minLen right ch :
  rep s l -> lenN l < LIM -> minLen + 1 <= LIM -> rep (padded1 s minLen right ch) (l0_padded l minLen right ch).
Proof.
  intros R Bl B. unfold StrModel.padded1, l0_padded. rewrite (rep_len s l R).
  destruct (lenN l <? minLen) eqn:E; [|apply copy_rep; [apply srep_of; eassumption|exact Bl]].
  apply N.ltb_lt in E. eapply rep_eq; [apply with_insert_ch_spec; [exact R|lia]|].
  destruct (ch =? 0); cbn [negb andb]; [reflexivity|].
  destruct right; [apply l0_insert_back; unfold LIM, NOLIMIT in *; lia|apply l0_insert_front].
Qed.

Lemma case_spec s l f : rep s l -> lenN l < LIM -> lenN (f l) = lenN l -> rep (case1 s f) (f l).
Proof.
  intros R Bl Hf. unfold StrModel.case1.
  destruct (copy_rep (src_of s) l (srep_of s l R) Bl) as [Ic <-].
  apply map_content_spec; trivial. rewrite Hf. apply (lenN_abs _ Ic).
Qed.

(* a suffix [t] of the subject is the slice from |l|-|t| on; Trimmed() and the WithoutPrefix(char) forms are such slices *)
Lemma sub_suffix s pre t : rep s (pre ++ t) -> lenN (pre ++ t) < LIM ->
  rep (ctor_sub (src_of s) (lenN (pre ++ t) - lenN t) NOLIMIT) t.
Proof.
  intros R B. eapply rep_eq; [apply sub_rep; [apply srep_of; eassumption|exact B]|].
  rewrite (l0_sub_from _ _ B), lenN_app. replace (lenN pre + lenN t - lenN t) with (lenN pre) by lia.
  apply dropN_app_exact.
Qed.
Lemma without_prefix_ch_spec s l ch max : rep s l -> lenN l < LIM ->
  rep (ctor_sub (src_of s) (lenN l - lenN (l0_without_prefix_ch l ch max)) NOLIMIT) (l0_without_prefix_ch l ch max).
Proof.
  intros R B. unfold l0_without_prefix_ch. destruct (strip_ch_prefix_suffix l ch max) as [pre H].
  set (t := strip_ch_prefix l ch max) in *. clearbody t. subst l. now apply sub_suffix.
Qed.
Lemma without_prefix_ch_nc_spec s l ch max : rep s l -> lenN l < LIM ->
  rep (ctor_sub (src_of s) (lenN l - lenN (strip_ch_prefix_nc l ch max)) NOLIMIT) (strip_ch_prefix_nc l ch max).
Proof.
  intros R B. destruct (strip_ch_prefix_nc_suffix l ch max) as [pre H].
  set (t := strip_ch_prefix_nc l ch max) in *. clearbody t. subst l. now apply sub_suffix.
Qed.
Lemma trimmed_spec s l : rep s l -> lenN l < LIM -> rep (trimmed1 s) (l0_trimmed l).
Proof.
  intros R B. unfold StrModel.trimmed1. rewrite (proj2 R).
  eapply rep_eq; [apply sub_rep; [apply srep_of; eassumption|exact B]|apply trimmed_slice].
Qed.

Lemma plus_spec s l o b : rep s l -> srep o b -> lenN l + lenN b + 1 <= LIM -> rep (plus_s s o) (l ++ b).
Proof.
  intros R O B. unfold StrModel.plus_s. apply append_s_rep; trivial.
  eapply set_from_all_rep; [apply prealloc_rep, empty_rep|apply srep_of; eassumption|lia].
Qed.

Lemma without_suffix_loop_spec f r l suf max : rep r l ->
  rep (without_suffix_loop f r suf max) (strip_suffix_fuel f l suf max).
Proof.
  revert r l max. induction f as [|f IH]; intros r l max R; cbn [StrModel.without_suffix_loop strip_suffix_fuel]; trivial.
  rewrite (proj2 R). destruct ((0 <? max) && ends_with l suf); trivial. now apply IH, trunc_chars_rep.
Qed.
Lemma without_suffix_ch_loop_spec f r l ch max : rep r l ->
  rep (without_suffix_ch_loop f r ch max) (strip_suffix_fuel f l [ch] max).
Proof.
  revert r l max. induction f as [|f IH]; intros r l max R; cbn [StrModel.without_suffix_ch_loop strip_suffix_fuel]; trivial.
  rewrite (proj2 R). destruct ((0 <? max) && ends_with l [ch]); trivial. now apply IH, trunc_chars_rep.
Qed.
Lemma without_suffix_nc_loop_spec f r l suf max : rep r l ->
  rep (without_suffix_nc_loop f r suf max) (strip_suffix_nc_fuel f l suf max).
Proof.
  revert r l max. induction f as [|f IH]; intros r l max R; cbn [StrModel.without_suffix_nc_loop strip_suffix_nc_fuel]; trivial.
  rewrite (proj2 R). destruct ((0 <? max) && ends_with_nocase l suf); trivial. now apply IH, trunc_chars_rep.
Qed.
(* r = r.Substring(|pre|) *)
Lemma drop_rep r l k : rep r l -> lenN l < LIM -> rep (ctor_sub (src_of r) k NOLIMIT) (dropN k l).
Proof.
  intros R B. eapply rep_eq; [apply sub_rep; [apply srep_of; eassumption|exact B]|now apply l0_sub_from].
Qed.
Lemma without_prefix_loop_spec f r l pre max : rep r l -> lenN l < LIM ->
  rep (without_prefix_loop f r pre max) (strip_prefix_fuel f l pre max).
Proof.
  revert r l max. induction f as [|f IH]; intros r l max R B; cbn [StrModel.without_prefix_loop strip_prefix_fuel]; trivial.
  rewrite (proj2 R). destruct ((0 <? max) && starts_with l pre); trivial. apply IH; [now apply drop_rep|rewrite lenN_dropN; lia].
Qed.
Lemma without_prefix_nc_loop_spec f r l pre max : rep r l -> lenN l < LIM ->
  rep (without_prefix_nc_loop f r pre max) (strip_prefix_nc_fuel f l pre max).
Proof.
  revert r l max. induction f as [|f IH]; intros r l max R B; cbn [StrModel.without_prefix_nc_loop strip_prefix_nc_fuel]; trivial.
  rewrite (proj2 R). destruct ((0 <? max) && starts_with_nocase l pre); trivial. apply IH; [now apply drop_rep|rewrite lenN_dropN; lia].
Qed.

Lemma strip_digits_loop_spec f r l : rep r l -> (length l < f)%nat ->
  rep (strip_digits_loop f r) (takeN (lenN l - lenN (digits_prefix (rev l))) l).
Proof.
  revert r l. induction f as [|f IH]; intros r l R Hf; [lia|]. cbn [StrModel.strip_digits_loop]. rewrite (proj2 R).
  destruct (rev l) as [|c t] eqn:E.
  - cbn [digits_prefix]. rewrite lenN_nil, N.sub_0_r, takeN_all by lia. exact R.
  - assert (El : l = rev t ++ [c]) by (rewrite <- (rev_involutive l), E; reflexivity).
    cbn [digits_prefix]. destruct (is_digit c); [|rewrite lenN_nil, N.sub_0_r, takeN_all by lia; exact R].
    assert (Et : l0_trunc_chars l 1 = rev t).
    { unfold l0_trunc_chars. rewrite El, lenN_app, lenN_cons, lenN_nil.
      replace (lenN (rev t) + (0 + 1) - N.min (lenN (rev t) + (0 + 1)) 1) with (lenN (rev t)) by lia. apply takeN_app_exact. }
    eapply rep_eq; [apply (IH _ (rev t)); [rewrite <- Et; now apply trunc_chars_rep|]|].
    + rewrite El, app_length in Hf. cbn [length] in Hf. lia.
    + rewrite rev_involutive, El, lenN_app, !lenN_cons, lenN_nil. rewrite takeN_app_le by lia. f_equal. lia.
Qed.
Lemma without_num_suffix_spec s l : rep s l -> lenN l < LIM ->
  rep (strip_digits_loop (S (length l)) (ctor_copy (src_of s))) (fst (l0_without_num_suffix l)).
Proof.
  intros R B. unfold l0_without_num_suffix, digits_suffix. cbn [fst]. rewrite lenN_rev.
  apply strip_digits_loop_spec; [apply copy_rep; [apply srep_of; eassumption|exact B]|lia].
Qed.

(* Arg(): the lowest token is replaced in a copy *)
Lemma arg_spec s l value :
  rep s l -> nulfree l -> nulfree value -> lenN value < LIM -> lenN l + lenN value * lenN l + 1 <= LIM ->
  rep (arg1 s value) (l0_arg l value).
Proof.
  intros R Fs F Bv B. unfold StrModel.arg1, l0_arg. rewrite (proj2 R).
  assert (Rc : rep (ctor_copy (src_of s)) l) by (apply copy_rep; [apply srep_of; eassumption|lia]).
  destruct (0 <=? arg_scan (S (length l)) l (-1))%Z; trivial.
  set (tok := 37 :: dec_of_Z (arg_scan (S (length l)) l (-1))).
  rewrite <- (rep_len _ l Rc) in B. destruct Rc as [Ic <-].
  pose proof (replace_s_spec (ctor_copy (src_of s)) (Some (src_lit tok)) (Some (src_lit value)) NOLIMIT 0 Ic Fs) as X.
  cbn zeta in X. cbn [StrModel.osrc] in X. rewrite !src_bytes_lit in X.
  destruct X as (X1 & X2 & _); [split; [apply src_ok_lit|exact Bv]|exact B|now split].
Qed.


(* a copy of [o] (with extra preallocation) followed by the insertion of the whole of w *)
Lemma copy_pre_insert o a extra idx w b :
  srep o a -> srep w b -> nulfree b -> lenN a + lenN b + 1 <= LIM ->
  rep (snd (insert_aux (ctor_copy_pre o extra) idx (Some (fst w)) false (snd w) 1)) (l0_insert a idx b).
Proof.
  intros O W Fb B. rewrite (srep_len w b W).
  eapply rep_eq; [apply (ins_rep _ a idx w b (lenN b)); trivial; try lia; apply copy_pre_rep; [exact O|lia]|].
  now rewrite takeN_all.
Qed.

Lemma with_word_spec s l idx w b sep :
  rep s l -> nulfree l -> srep w b -> nulfree b -> nulfree sep -> lenN l + lenN b + 2 * lenN sep + 1 <= LIM ->
  rep (with_word s idx w sep) (l0_with_word l idx b sep).
Proof.
  intros R F W Fb Fs B. pose proof (srep_of s l R) as Ome. pose proof (srep_lit sep) as Osep.
  unfold StrModel.with_word, l0_with_word. rewrite !is_nil_len, (srep_len w b W), (rep_len s l R), (proj2 R), (proj2 W).
  destruct (lenN b =? 0) eqn:E1; [apply copy_rep; [exact Ome|lia]|]. apply N.eqb_neq in E1.
  destruct (lenN sep =? 0) eqn:E2.
  { rewrite <- (srep_len w b W). apply copy_pre_insert; trivial. lia. }
  apply N.eqb_neq in E2.
  (* the subject with a separator put at one end *)
  assert (Sep : forall i, rep (StrModel.with_insert M TH PG OV jk true s i (src_lit sep) NOLIMIT) (l0_insert l i sep)).
  { intros i. rewrite <- (takeN_all NOLIMIT sep) at 2 by (unfold NOLIMIT, LIM in *; lia).
    apply with_insert_spec; trivial. lia. }
  destruct (lenN l <=? idx) eqn:E3.
  { (* appended *)
    apply N.leb_le in E3. rewrite <- (srep_len w b W).
    destruct ((lenN l =? 0) || ends_with l sep || starts_with b sep).
    - eapply rep_eq; [apply (copy_pre_insert _ l _ _ w b); trivial; lia|]. apply l0_insert_back. unfold NOLIMIT, LIM in *. lia.
    - eapply rep_eq; [apply (copy_pre_insert _ (l0_insert l NOLIMIT sep) _ _ w b); [apply srep_of, Sep|trivial..]|].
      + rewrite l0_insert_back, lenN_app by (unfold NOLIMIT, LIM in *; lia). lia.
      + rewrite (l0_insert_back l), l0_insert_back; rewrite ?lenN_app; trivial; unfold NOLIMIT, LIM in *; lia. }
  apply N.leb_gt in E3.
  destruct (idx =? 0) eqn:E4.
  { (* prepended *)
    rewrite <- (srep_len w b W).
    destruct ((lenN l =? 0) || starts_with l sep || ends_with b sep).
    - eapply rep_eq; [apply (copy_pre_insert _ l _ _ w b); trivial; lia|]. apply l0_insert_front.
    - eapply rep_eq; [apply (copy_pre_insert _ (l0_insert l 0 sep) _ _ w b); [apply srep_of, Sep|trivial..]|].
      + rewrite l0_insert_front, lenN_app. lia.
      + now rewrite !l0_insert_front. }
  apply N.eqb_neq in E4.
  (* in the middle: head ++ [sep] ++ word ++ [sep] ++ tail *)
  assert (Bl : lenN l < LIM) by lia.
  pose proof (drop_rep s l idx R Bl) as Ra. set (after := ctor_sub (src_of s) idx NOLIMIT) in *.
  assert (Rh : rep (ctor_sub (src_of s) 0 idx) (takeN idx l)).
  { eapply rep_eq; [apply (sub_rep _ l); trivial|]. unfold l0_sub. rewrite N.min_l by lia.
    now rewrite (ltb_t 0 idx), dropN_0, N.sub_0_r by lia. }
  set (a := takeN idx l) in *. set (t := dropN idx l) in *.
  assert (Fa : nulfree a) by now apply nulfree_takeN.
  assert (Ft : nulfree t) by now apply nulfree_dropN.
  assert (La : lenN a = idx) by (unfold a; rewrite lenN_takeN; lia).
  assert (Lt : lenN t = lenN l - idx) by (unfold t; apply lenN_dropN).
  set (extra := u32 (u32 (lenN b + StrModel.slen M after) + u32 (lenN sep * 2))).
  assert (R0 : rep (ctor_copy_pre (src_of (ctor_sub (src_of s) 0 idx)) extra) a) by (apply copy_pre_rep; [apply srep_of; eassumption|lia]).
  set (r0 := ctor_copy_pre _ extra) in *.
  rewrite (rep_len r0 a R0), (proj2 R0), (rep_len after t Ra), (proj2 Ra), La, Lt.
  rewrite (ltb_t 0 idx) by lia.
  rewrite (eqb_f idx 0) by lia.
  rewrite (ltb_t 0 (lenN l - idx)) by lia.
  rewrite (eqb_f (lenN l - idx) 0) by lia.
  cbn [negb andb].
  (* r1: the head, with a separator when needed *)
  set (c1 := negb (ends_with a sep) && negb (starts_with b sep)).
  assert (R1 : rep (if c1 then append_c r0 (CLit sep) else r0) (if c1 then a ++ sep else a)).
  { destruct c1; trivial. apply append_c_rep; trivial. lia. }
  set (r1 := if c1 then _ else r0) in *. set (l1 := if c1 then a ++ sep else a) in *.
  assert (Ll1 : lenN l1 <= idx + lenN sep) by (unfold l1; destruct c1; rewrite ?lenN_app; lia).
  assert (F1 : nulfree l1) by (unfold l1; destruct c1; trivial; apply nulfree_app; now split).
  (* r2: the word appended *)
  assert (R2 : rep (snd (insert_aux r1 NOLIMIT (Some (fst w)) false (lenN b) 1)) (l1 ++ b)).
  { eapply rep_eq; [apply (ins_rep r1 l1 NOLIMIT w b (lenN b)); trivial; lia|].
    rewrite takeN_all by lia. apply l0_insert_back. unfold NOLIMIT, LIM in *. lia. }
  set (r2 := snd _) in *. rewrite (proj2 R2).
  (* r3: a separator before the tail when needed *)
  set (c3 := negb (ends_with (l1 ++ b) sep) && negb (starts_with t sep)).
  assert (R3 : rep (if c3 then append_c r2 (CLit sep) else r2) (if c3 then (l1 ++ b) ++ sep else l1 ++ b)).
  { destruct c3; trivial. apply append_c_rep; trivial; [apply nulfree_app; now split|rewrite lenN_app; lia]. }
  apply plus_spec; trivial; [apply srep_of; eassumption|]. destruct c3; rewrite ?lenN_app; lia.
Qed.

Lemma indent_loop_spec pad p l : srep pad p -> forall seen r a,
  rep r a -> lenN a + lenN l * (lenN p + 1) + 1 <= LIM ->
  rep (indent_loop pad seen l r) (indent_fold p seen l a).
Proof.
  intros Pd. induction l as [|c t IH]; intros seen r a R B; cbn [StrModel.indent_loop indent_fold]; trivial.
  rewrite lenN_cons in B.
  destruct ((c =? 10) || (c =? 13)); [|destruct seen]; apply IH; repeat (apply append_ch_rep || apply append_s_rep); trivial;
    rewrite ?lenN_app, ?lenN_cons, ?lenN_nil; nia.
Qed.

Lemma indented_spec s l n ch :
  rep s l -> lenN l < LIM -> lenN l * (n + 1) + n + 1 <= LIM -> rep (indented1 s n ch) (l0_indented l n ch).
Proof.
  intros R Bl B. unfold StrModel.indented1, l0_indented. rewrite (proj2 R).
  destruct ((n =? 0) || (ch =? 0)) eqn:E; [apply copy_rep; [apply srep_of; eassumption|exact Bl]|].
  apply orb_false_iff in E. destruct E as [En Ec]. apply N.eqb_neq in En.
  assert (Rp : rep (StrModel.padded1 M TH PG OV jk true empty1 n false ch) (repN ch n)).
  { eapply rep_eq; [apply padded_spec; [apply empty_rep|rewrite lenN_nil; unfold LIM; lia|nia]|].
    unfold l0_padded. rewrite lenN_nil, Ec, (ltb_t 0 n) by lia. cbn [negb andb]. now rewrite N.sub_0_r, app_nil_r. }
  set (pad := StrModel.padded1 M TH PG OV jk true empty1 n false ch) in *.
  pose proof (srep_of pad _ Rp) as Pd.
  destruct ((nthN 0 l =? 13) || (nthN 0 l =? 10)); apply (indent_loop_spec _ _ l Pd); rewrite ?lenN_repN, ?lenN_nil; try nia.
  - eapply set_from_all_rep; [apply empty_rep|exact Pd|rewrite lenN_repN; nia].
  - apply empty_rep.
Qed.

Lemma esc_loop_spec seps esc l : forall pe pc r a,
  rep r a -> lenN a + 2 * lenN l + 1 <= LIM ->
  rep (esc_loop seps esc pe pc l r) (esc_fold seps esc pe pc l a).
Proof.
  induction l as [|cur t IH]; intros pe pc r a R B; cbn [StrModel.esc_loop esc_fold]; trivial.
  rewrite lenN_cons in B.
  destruct (negb pe && _); apply IH; repeat apply append_ch_rep; trivial; rewrite ?lenN_app, ?lenN_cons, ?lenN_nil; lia.
Qed.

Lemma escaped_spec s l seps esc :
  rep s l -> lenN l < LIM -> 3 * lenN l + 1 <= LIM -> rep (escaped1 s seps esc) (l0_escaped l seps esc).
Proof.
  intros R Bl B. unfold StrModel.escaped1, l0_escaped. rewrite (proj2 R).
  destruct (esc =? 0); [apply copy_rep; [apply srep_of; eassumption|exact Bl]|].
  destruct ((count_if (is_sep seps) l =? 0) && (count_ch esc l =? 0)); [apply copy_rep; [apply srep_of; eassumption|exact Bl]|].
  apply esc_loop_spec; [apply prealloc_rep, empty_rep|rewrite lenN_nil; lia].
Qed.



Lemma multi_loop_spec pairs : forall fuel l max r a,
  (length l < fuel)%nat ->
  rep r a -> lenN a + lenN (fst (multi_fuel fuel pairs l max)) + 1 <= LIM ->
  rep (fst (multi_loop fuel pairs l max r)) (a ++ fst (multi_fuel fuel pairs l max)) /\
  snd (multi_loop fuel pairs l max r) = snd (multi_fuel fuel pairs l max).
Proof.
  induction fuel as [|f IH]; intros l max r a Hf R B; [lia|]. cbn [StrModel.multi_loop multi_fuel] in *.
  destruct l as [|c t]; [cbn [fst snd]; now rewrite app_nil_r|].
  destruct (if 0 <? max then key_at pairs (c :: t) else None) as [[k v]|] eqn:EK.
  - assert (Kp : 0 < lenN k).
    { destruct (0 <? max); [|discriminate EK]. apply (key_at_nonempty _ _ _ _ EK). }
    assert (Hf' : (length (dropN (lenN k) (c :: t)) < f)%nat).
    { pose proof (lenN_dropN (lenN k) (c :: t)) as L. unfold lenN in L, Kp |- *. cbn [length] in Hf, L. lia. }
    specialize (IH (dropN (lenN k) (c :: t)) (dec_max max) (append_s r (Some (src_lit v))) (a ++ v) Hf').
    destruct (multi_fuel f pairs (dropN (lenN k) (c :: t)) (dec_max max)) as [res n]. cbn [fst snd] in *.
    rewrite lenN_app in B.
    destruct (multi_loop f pairs _ (dec_max max) _) as [r' n']. cbn [fst snd] in *.
    destruct IH as (X1 & X2); [apply append_s_rep; [trivial|apply srep_lit|lia]|rewrite lenN_app; lia|].
    rewrite <- app_assoc in X1. split; [exact X1|lia].
  - specialize (IH t max (append_ch r c) (a ++ [c]) ltac:(cbn [length] in Hf; lia)).
    destruct (multi_fuel f pairs t max) as [res n]. cbn [fst snd] in *. rewrite lenN_cons in B.
    destruct IH as (X1 & X2); [apply append_ch_rep; [trivial|lia]|rewrite lenN_app, lenN_cons, lenN_nil; lia|].
    rewrite <- app_assoc in X1. now split.
Qed.

Lemma replace_multi_spec s pairs max :
  inv s -> lenN (fst (l0_replace_multi (abs s) pairs max)) + 1 <= LIM ->
  match replace_multi1 s pairs max with
  | (Some w, n) => inv w /\ abs w = fst (l0_replace_multi (abs s) pairs max) /\ n = snd (l0_replace_multi (abs s) pairs max)
  | (None, n) => n = 0 /\ snd (l0_replace_multi (abs s) pairs max) = 0 /\ fst (l0_replace_multi (abs s) pairs max) = abs s
  end.
Proof.
  intros I B. unfold StrModel.replace_multi1.
  destruct (l0_replace_multi (abs s) pairs max) as [res n] eqn:E0. cbn [fst snd] in *.
  destruct (n =? 0) eqn:En.
  { apply N.eqb_eq in En. splits; trivial. unfold l0_replace_multi in E0.
    pose proof (multi_fuel_zero (S (length (abs s))) pairs (abs s) max) as Z. rewrite E0 in Z. cbn [fst snd] in Z. now apply Z. }
  assert (R0 : rep (snd (prealloc (StrModel.clear M empty1) (lenN res))) []).
  { apply prealloc_rep. split; apply (clear_spec empty1), empty_rep. }
  unfold l0_replace_multi in E0.
  destruct (multi_loop_spec pairs (S (length (abs s))) (abs s) max _ [] ltac:(lia) R0) as ((X1 & X2) & X3);
    rewrite E0 in *; cbn [fst snd lenN length N.of_nat] in *; [lia|].
  destruct (multi_loop (S (length (abs s))) pairs (abs s) max _) as [w n']. cbn [fst snd] in *. now splits.
Qed.


Lemma append_ch_times_spec n : forall r a ch, rep r a -> lenN a + N.of_nat n + 1 <= LIM ->
  rep (append_ch_times n r ch) (a ++ repN ch (N.of_nat n)).
Proof.
  induction n as [|n IH]; intros r a ch R B; cbn [StrModel.append_ch_times].
  - cbn. now rewrite app_nil_r.
  - replace (N.of_nat (S n)) with (N.of_nat n + 1) by lia. rewrite repN_S.
    change (a ++ ch :: repN ch (N.of_nat n)) with (a ++ [ch] ++ repN ch (N.of_nat n)). rewrite app_assoc.
    apply IH; [apply append_ch_rep; [trivial|lia]|rewrite lenN_app, lenN_cons, lenN_nil; lia].
Qed.

Lemma float_text_spec buf m :
  nulfree buf -> lenN buf + m + 3 <= LIM -> rep (float_text1 buf m) (l0_float_text buf m).
Proof.
  intros F B. unfold StrModel.float_text1, l0_float_text.
  assert (R0 : rep (snd (set_cstr empty1 (CLit buf) NOLIMIT)) buf).
  { rewrite <- (takeN_all NOLIMIT buf) at 2 by (unfold NOLIMIT, LIM in *; lia).
    apply (set_cstr_rep _ []); trivial; [apply empty_rep|unfold LIM in *; lia]. }
  set (t0 := snd _) in *. rewrite (proj2 R0).
  (* t1: trailing zeros dropped *)
  set (l1 := if existsb (N.eqb 46) buf then strip_suffix_fuel (S (length buf)) buf [48] NOLIMIT else buf).
  assert (R1 : rep (if existsb (N.eqb 46) buf then StrModel.without_suffix_ch_loop M (S (length buf)) t0 48 NOLIMIT else t0) l1).
  { unfold l1. destruct (existsb (N.eqb 46) buf); trivial. now apply without_suffix_ch_loop_spec. }
  set (t1 := if existsb (N.eqb 46) buf then _ else t0) in *.
  assert (Ll1 : lenN l1 <= lenN buf) by (unfold l1; destruct (existsb (N.eqb 46) buf); [apply strip_suffix_fuel_len|lia]).
  rewrite (proj2 R1), (rep_len t1 l1 R1).
  destruct (m =? 0).
  - destruct (ends_with l1 [46]); trivial. now apply trunc_chars_rep.
  - destruct (l0_last_index_of_ch l1 46 0) as [|p|p].
    + rewrite <- (N2Nat.id (m - _)) at 2. apply append_ch_times_spec; trivial. unfold LIM in *. lia.
    + rewrite <- (N2Nat.id (m - _)) at 2. apply append_ch_times_spec; trivial. unfold LIM in *. lia.
    + rewrite <- (N2Nat.id m) at 2. apply append_ch_times_spec; [apply append_ch_rep; [trivial|unfold LIM in *; lia]|].
      rewrite lenN_app, lenN_cons, lenN_nil. unfold LIM in *. lia.
Qed.

End Prod.
