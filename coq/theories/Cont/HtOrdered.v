(* C09 -- the ordered classes: InsertIterationEntryInOrder's backward scan and the two creeping loops of
   MoveIterationEntryToCorrectPosition, characterised on the represented list; the ideal repositioning as a
   five-way case distinction. *)
From Coq Require Import List Arith ZArith NArith PArith Bool Lia FMapPositive Permutation.
From Muscle Require Import Cont.HtModel Cont.HtIdeal Cont.HtLemmas Cont.HtRepr Cont.HtWalk.
Import ListNotations.

Fixpoint drop_while {A} (f : A -> bool) (l : list A) : list A :=
  match l with [] => [] | x :: r => if f x then drop_while f r else l end.

Lemma take_drop_while : forall A (f : A -> bool) l, take_while f l ++ drop_while f l = l.
Proof. induction l as [|x l IH]; [reflexivity|]. cbn. destruct (f x); [cbn; f_equal; exact IH|reflexivity]. Qed.



Lemma drop_while_ext_in : forall A (f g : A -> bool) l, (forall x, In x l -> f x = g x) -> drop_while f l = drop_while g l.
Proof.
  induction l as [|x l IH]; intros H; [reflexivity|]. cbn. rewrite (H x) by (left; reflexivity).
  destruct (g x); [apply IH; intros; apply H; right; assumption|reflexivity].
Qed.

Lemma take_while_all : forall A (f : A -> bool) l x, In x (take_while f l) -> f x = true.
Proof.
  induction l as [|y l IH]; intros x H; [destruct H|]. cbn in H. destruct (f y) eqn:E; [|destruct H].
  destruct H as [<-|H]; [exact E|apply IH; exact H].
Qed.

Lemma take_while_incl : forall A (f : A -> bool) l x, In x (take_while f l) -> In x l.
Proof.
  induction l as [|y l IH]; intros x H; [destruct H|]. cbn in H. destruct (f y); [|destruct H].
  destruct H as [<-|H]; [left; reflexivity|right; apply IH; exact H].
Qed.

Lemma drop_while_head : forall A (f : A -> bool) l x, head_opt (drop_while f l) = Some x -> f x = false.
Proof.
  induction l as [|y l IH]; intros x H; [discriminate|]. cbn in H. destruct (f y) eqn:E; [apply IH; exact H|].
  cbn in H. inversion H; subst. exact E.
Qed.

(* the maximal suffix of l whose elements satisfy f, and what is in front of it *)
Definition suf_of {A} (f : A -> bool) (l : list A) : list A := rev (take_while f (rev l)).
Definition pre_of {A} (f : A -> bool) (l : list A) : list A := rev (drop_while f (rev l)).

Lemma pre_suf : forall A (f : A -> bool) l, pre_of f l ++ suf_of f l = l.
Proof.
  intros. unfold pre_of, suf_of. rewrite <- rev_app_distr, take_drop_while. apply rev_involutive.
Qed.

Lemma firstn_pre : forall A (f : A -> bool) l, firstn (length l - length (suf_of f l)) l = pre_of f l.
Proof.
  intros A f l. rewrite <- (pre_suf A f l) at 1 3. rewrite app_length.
  replace (length (pre_of f l) + length (suf_of f l) - length (suf_of f l)) with (length (pre_of f l)) by lia.
  rewrite firstn_app, firstn_all, Nat.sub_diag. cbn [firstn]. apply app_nil_r.
Qed.


Lemma pre_of_last : forall A (f : A -> bool) (l : list A), head_opt (rev (pre_of f l)) = head_opt (drop_while f (rev l)).
Proof. intros. unfold pre_of. rewrite rev_involutive. reflexivity. Qed.

Lemma take_while_map_in : forall A B (g : A -> B) (f : B -> bool) (f' : A -> bool) l,
  (forall y, In y l -> f (g y) = f' y) -> take_while f (map g l) = map g (take_while f' l).
Proof.
  induction l as [|x l IH]; intros H; [reflexivity|]. cbn. rewrite (H x (or_introl eq_refl)).
  destruct (f' x); [cbn; f_equal; apply IH; intros; apply H; right; assumption|reflexivity].
Qed.

Lemma drop_while_map_in : forall A B (g : A -> B) (f : B -> bool) (f' : A -> bool) l,
  (forall y, In y l -> f (g y) = f' y) -> drop_while f (map g l) = map g (drop_while f' l).
Proof.
  induction l as [|x l IH]; intros H; [reflexivity|]. cbn. rewrite (H x (or_introl eq_refl)).
  destruct (f' x); [apply IH; intros; apply H; right; assumption|reflexivity].
Qed.

Lemma suf_of_map_in : forall A B (g : A -> B) (f : B -> bool) (f' : A -> bool) l,
  (forall y, In y l -> f (g y) = f' y) -> suf_of f (map g l) = map g (suf_of f' l).
Proof.
  intros A B g f f' l H. unfold suf_of. rewrite <- map_rev, (take_while_map_in _ _ g f f'), map_rev; [reflexivity|].
  intros y Hy. apply H, in_rev, Hy.
Qed.

Lemma pre_of_map_in : forall A B (g : A -> B) (f : B -> bool) (f' : A -> bool) l,
  (forall y, In y l -> f (g y) = f' y) -> pre_of f (map g l) = map g (pre_of f' l).
Proof.
  intros A B g f f' l H. unfold pre_of. rewrite <- map_rev, (drop_while_map_in _ _ g f f'), map_rev; [reflexivity|].
  intros y Hy. apply H, in_rev, Hy.
Qed.

Lemma a_index_app_key : forall (pre post : amap) k v i, (forall y, In y pre -> fst y <> k) ->
  a_index (pre ++ (k, v) :: post) k i = Some (i + length pre).
Proof.
  induction pre as [|[k' v'] pre IH]; intros post k v i Hn; cbn [app a_index length].
  - rewrite Z.eqb_refl. f_equal. lia.
  - assert (Hk : k' <> k) by (apply (Hn (k', v')); left; reflexivity). apply Z.eqb_neq in Hk. rewrite Hk.
    rewrite IH by (intros y Hy; apply Hn; right; exact Hy). f_equal. lia.
Qed.

Lemma a_get_app_key : forall (pre post : amap) k v, (forall y, In y pre -> fst y <> k) ->
  a_get (pre ++ (k, v) :: post) k = Some v.
Proof.
  induction pre as [|[k' v'] pre IH]; intros post k v Hn; cbn [app a_get].
  - rewrite Z.eqb_refl. reflexivity.
  - assert (Hk : k' <> k) by (apply (Hn (k', v')); left; reflexivity). apply Z.eqb_neq in Hk. rewrite Hk.
    apply IH. intros y Hy. apply Hn. right; exact Hy.
Qed.

Lemma skipn_take_while : forall A (f : A -> bool) l, skipn (length (take_while f l)) l = drop_while f l.
Proof. induction l as [|x l IH]; [reflexivity|]. cbn. destruct (f x); [exact IH|reflexivity]. Qed.

(* MoveIterationEntryToCorrectPosition on lists, as a five-way case distinction on the pair's neighbours and
   on the ends of the list: to the front / creep towards the front / to the back / creep towards the back / stay *)
Lemma l0_reposition_ordered_split : forall var pre post k v, (forall y, In y pre -> fst y <> k) ->
  let kv := (k, v) in
  let lt y := is_lt (cmpv var kv y) in
  let gt y := is_gt (cmpv var kv y) in
  l0_reposition_ordered var (pre ++ kv :: post) k =
  if match last_opt pre with Some b => lt b | None => false end then
    if match head_opt pre with Some x => lt x | None => false end then kv :: pre ++ post
    else pre_of lt pre ++ kv :: suf_of lt pre ++ post
  else if match head_opt post with Some y => gt y | None => false end then
    if match last_opt post with Some z => gt z | None => false end then pre ++ post ++ [kv]
    else pre ++ take_while gt post ++ kv :: drop_while gt post
  else pre ++ kv :: post.
Proof.
  intros var pre post k v Hn kv lt gt. unfold l0_reposition_ordered. subst kv.
  rewrite (a_index_app_key pre post k v 0 Hn), (a_get_app_key pre post k v Hn). cbn [Nat.add]. set (kv := (k, v)) in *.
  replace (firstn (length pre) (pre ++ kv :: post)) with pre by (rewrite firstn_app, firstn_all, Nat.sub_diag; cbn; symmetry; apply app_nil_r).
  replace (skipn (S (length pre)) (pre ++ kv :: post)) with post
    by (rewrite skipn_app, skipn_all2 by lia; replace (S (length pre) - length pre) with 1 by lia; reflexivity).
  cbv zeta.
  assert (Fwd : match post with
     | [] => pre ++ kv :: post
     | y :: _ =>
       if is_gt (cmpv var kv y) then
         match last_opt (pre ++ kv :: post) with
         | Some z => if is_gt (cmpv var kv z) then pre ++ post ++ [kv]
                     else pre ++ take_while gt post ++ kv :: skipn (length (take_while gt post)) post
         | None => pre ++ kv :: post
         end
       else pre ++ kv :: post
     end =
     if match head_opt post with Some y => gt y | None => false end then
       if match last_opt post with Some z => gt z | None => false end then pre ++ post ++ [kv]
       else pre ++ take_while gt post ++ kv :: drop_while gt post
     else pre ++ kv :: post).
  { destruct post as [|y post']; [reflexivity|]. cbn [head_opt]. fold (gt y). destruct (gt y); [|reflexivity].
    change (last_opt (pre ++ kv :: y :: post')) with (last_of (pre ++ kv :: y :: post')).
    rewrite last_of_app_cons, last_of_cons_cons. change (last_of (y :: post')) with (last_opt (y :: post')).
    rewrite skipn_take_while. destruct (last_opt (y :: post')) as [z|] eqn:Ez; [reflexivity|].
    apply last_of_none in Ez. discriminate. }
  destruct (last_opt pre) as [b|] eqn:Eb; [|exact Fwd]. fold (lt b). destruct (lt b); [|exact Fwd].
  destruct pre as [|x pre']; [discriminate|]. cbn [app head_opt]. fold (lt x). destruct (lt x); [reflexivity|].
  change (rev (take_while (fun y => is_lt (cmpv var kv y)) (rev (x :: pre')))) with (suf_of lt (x :: pre')).
  rewrite firstn_pre. reflexivity.
Qed.

Section Scan.
Variable var : variant.

Definition lt_ent (h : ht) (kv : Z * Z) (y : positive) : bool := is_lt (cmp_ent var h kv y).
Definition gt_ent (h : ht) (kv : Z * Z) (y : positive) : bool := is_gt (cmp_ent var h kv y).

Lemma scan_back_spec : forall h l kv, linked h l -> forall fuel pre suf, l = pre ++ suf -> length pre <= fuel ->
  scan_back var h kv (last_of pre) fuel = head_opt (drop_while (lt_ent h kv) (rev pre)).
Proof.
  intros h l kv L. induction fuel as [|f IH]; intros pre suf E Hf.
  - destruct pre; [reflexivity|cbn in Hf; lia].
  - destruct (last_of pre) as [x|] eqn:EL.
    + destruct (last_of_split _ _ _ EL) as (pre' & ->). rewrite rev_app_distr. cbn [rev app drop_while scan_back].
      unfold lt_ent at 1. destruct (cmp_ent var h kv x) eqn:Ec; cbn [is_lt]; try reflexivity.
      rewrite <- app_assoc in E. cbn [app] in E. rewrite (prev_of_prefix h l pre' x suf L E).
      apply (IH pre' (x :: suf) E). rewrite app_length in Hf. cbn in Hf. lia.
    + apply last_of_none in EL. subst pre. reflexivity.
Qed.

Lemma creep_back_spec : forall h l kv, linked h l -> forall fuel pre b suf, l = pre ++ b :: suf -> length pre <= fuel ->
  Some (creep_back var h kv b fuel) = last_of (b :: take_while (lt_ent h kv) (rev pre)).
Proof.
  intros h l kv L. induction fuel as [|f IH]; intros pre b suf E Hf.
  - destruct pre; [reflexivity|cbn in Hf; lia].
  - cbn [creep_back]. rewrite (prev_of_prefix h l pre b suf L E).
    destruct (last_of pre) as [p|] eqn:EL.
    + destruct (last_of_split _ _ _ EL) as (pre' & ->). rewrite rev_app_distr. cbn [rev app take_while].
      unfold lt_ent at 1. destruct (cmp_ent var h kv p) eqn:Ec; cbn [is_lt]; try reflexivity.
      rewrite last_of_cons_cons. rewrite <- app_assoc in E. cbn [app] in E.
      apply (IH pre' p (b :: suf) E). rewrite app_length in Hf. cbn in Hf. lia.
    + apply last_of_none in EL. subst pre. reflexivity.
Qed.

Lemma creep_fwd_spec : forall h l kv, linked h l -> forall fuel pre b suf, l = pre ++ b :: suf -> length suf <= fuel ->
  Some (creep_fwd var h kv b fuel) = last_of (b :: take_while (gt_ent h kv) suf).
Proof.
  intros h l kv L. induction fuel as [|f IH]; intros pre b suf E Hf.
  - destruct suf; [reflexivity|cbn in Hf; lia].
  - cbn [creep_fwd]. rewrite (next_of_suffix h l pre b suf L E).
    destruct suf as [|n suf']; [reflexivity|]. cbn [head_opt take_while].
    unfold gt_ent at 1. destruct (cmp_ent var h kv n) eqn:Ec; cbn [is_gt]; try reflexivity.
    rewrite last_of_cons_cons.
    apply (IH (pre ++ [b]) n suf'); [rewrite <- app_assoc; exact E|cbn in Hf; lia].
Qed.

Lemma creep_back_suf : forall h l kv fuel l0 b suf, linked h l -> l = (l0 ++ [b]) ++ suf -> length l0 <= fuel ->
  lt_ent h kv b = true -> head_opt (suf_of (lt_ent h kv) (l0 ++ [b])) = Some (creep_back var h kv b fuel).
Proof.
  intros h l kv fuel l0 b suf L E Hf Hb. rewrite <- app_assoc in E.
  rewrite (creep_back_spec h l kv L fuel l0 b suf E Hf). unfold suf_of. rewrite rev_app_distr. cbn [rev app take_while].
  rewrite Hb. reflexivity.
Qed.

Lemma creep_fwd_take : forall h l kv fuel pre b suf, linked h l -> l = pre ++ b :: suf -> length suf <= fuel ->
  gt_ent h kv b = true -> last_of (take_while (gt_ent h kv) (b :: suf)) = Some (creep_fwd var h kv b fuel).
Proof.
  intros h l kv fuel pre b suf L E Hf Hb. rewrite (creep_fwd_spec h l kv L fuel pre b suf E Hf). cbn [take_while].
  rewrite Hb. reflexivity.
Qed.

Lemma creep_back_in : forall h l kv fuel pre b suf, linked h l -> l = pre ++ b :: suf -> length pre <= fuel ->
  In (creep_back var h kv b fuel) (pre ++ [b]).
Proof.
  intros h l kv fuel pre b suf L E Hf. pose proof (creep_back_spec h l kv L fuel pre b suf E Hf) as S.
  symmetry in S. apply last_of_in in S. apply in_or_app. destruct S as [<-|S]; [right; left; reflexivity|left].
  apply in_rev. eapply take_while_incl. exact S.
Qed.

Lemma creep_fwd_in : forall h l kv fuel pre b suf, linked h l -> l = pre ++ b :: suf -> length suf <= fuel ->
  In (creep_fwd var h kv b fuel) (b :: suf).
Proof.
  intros h l kv fuel pre b suf L E Hf. pose proof (creep_fwd_spec h l kv L fuel pre b suf E Hf) as S.
  symmetry in S. apply last_of_in in S. destruct S as [<-|S]; [left; reflexivity|right; eapply take_while_incl; exact S].
Qed.

End Scan.

(* InsertIterationEntryInOrder: in front of everything if less than the head, else in front of the maximal
   suffix of greater entries *)
Definition ins_split_ord (v : variant) (h : ht) (kv : Z * Z) (l : list positive) : list positive * list positive :=
  match l with
  | [] => ([], [])
  | x :: _ => if lt_ent v h kv x then ([], l) else (pre_of (lt_ent v h kv) l, suf_of (lt_ent v h kv) l)
  end.

Lemma ins_split_ord_app : forall v h kv l, fst (ins_split_ord v h kv l) ++ snd (ins_split_ord v h kv l) = l.
Proof.
  intros v h kv [|x l']; [reflexivity|]. unfold ins_split_ord.
  destruct (lt_ent v h kv x); cbn [fst snd]; [reflexivity|apply pre_suf].
Qed.

Lemma insert_ordered_aux_split : forall v h l e kv, linked h l -> cnt h = length l -> kv_of h e = Some kv ->
  match kv_of h e, hd h with
  | Some kv0, Some hx =>
      if (0 <? cnt h) && negb (match cmp_ent v h kv0 hx with Lt => true | _ => false end)
      then insert_iter_entry h e (scan_back v h kv0 (tl h) (cnt h))
      else insert_iter_entry h e None
  | _, _ => insert_iter_entry h e None
  end = insert_iter_entry h e (last_of (fst (ins_split_ord v h kv l))).
Proof.
  intros v h l e kv L C K. rewrite K, (lk_hd _ _ L). destruct l as [|x l']; [reflexivity|]. cbn [head_opt ins_split_ord].
  assert (Hc : (0 <? cnt h) = true) by (rewrite C; reflexivity). rewrite Hc. cbn [andb].
  unfold lt_ent at 1. destruct (cmp_ent v h kv x) eqn:Ec; cbn [is_lt negb fst]; try reflexivity;
    rewrite (lk_tl _ _ L), C, (scan_back_spec v h (x :: l') kv L (length (x :: l')) (x :: l') [] (eq_sym (app_nil_r _)) (le_n _));
    unfold pre_of, last_of; rewrite rev_involutive; reflexivity.
Qed.

Lemma insert_ordered_split : forall v h kv l,
  (forall y, In y l -> lt_ent v h kv y = is_lt (cmp_var v kv (kvf h y))) ->
  map (kvf h) (fst (ins_split_ord v h kv l)) ++ kv :: map (kvf h) (snd (ins_split_ord v h kv l))
  = l0_insert_ordered v (map (kvf h) l) kv.
Proof.
  intros v h kv l Hl. unfold l0_insert_ordered, ins_split_ord. destruct l as [|x l']; [reflexivity|]. cbn [map].
  rewrite (Hl x (or_introl eq_refl)). unfold cmpv.
  destruct (is_lt (cmp_var v kv (kvf h x))); cbn [fst snd map app]; [reflexivity|].
  change (kvf h x :: map (kvf h) l') with (map (kvf h) (x :: l')).
  fold (suf_of (fun y => is_lt (cmp_var v kv y)) (map (kvf h) (x :: l'))).
  rewrite firstn_pre.
  rewrite (suf_of_map_in _ _ _ _ (lt_ent v h kv)), (pre_of_map_in _ _ _ _ (lt_ent v h kv)); [reflexivity| |];
    intros y Hy; symmetry; apply Hl; exact Hy.
Qed.

Section Ins.
Variable var : variant.

(* where a new entry goes, for the three classes *)
Definition ins_split (srt : bool) (h : ht) (kv : Z * Z) (l : list positive) : list positive * list positive :=
  match var with
  | VPlain => (l, [])
  | _ => if srt then ins_split_ord var h kv l else (l, [])
  end.

Lemma ins_split_app : forall srt h kv l, fst (ins_split srt h kv l) ++ snd (ins_split srt h kv l) = l.
Proof.
  intros. unfold ins_split. destruct var; cbn [fst snd]; try apply app_nil_r;
    (destruct srt; [apply ins_split_ord_app|apply app_nil_r]).
Qed.

Lemma insert_entry_aux_split : forall h l e kv, linked h l -> cnt h = length l -> kv_of h e = Some kv ->
  insert_entry_aux var h e = insert_iter_entry h e (last_of (fst (ins_split (asort h) h kv l))).
Proof.
  intros h l e kv L C K. unfold insert_entry_aux, ins_split.
  pose proof (fun v => insert_ordered_aux_split v h l e kv L C K) as Ord.
  destruct var; [rewrite (lk_tl _ _ L); reflexivity| |];
    (destruct (asort h); [apply Ord|rewrite (lk_tl _ _ L); reflexivity]).
Qed.

Lemma l0_insert_new_split : forall srt h kv l,
  (forall y, In y l -> lt_ent var h kv y = is_lt (cmp_var var kv (kvf h y))) ->
  map (kvf h) (fst (ins_split srt h kv l)) ++ kv :: map (kvf h) (snd (ins_split srt h kv l))
  = l0_insert_new var (map (kvf h) l) srt kv.
Proof.
  intros srt h kv l Hl. unfold ins_split, l0_insert_new.
  pose proof (insert_ordered_split var h kv l Hl) as O.
  destruct var; cbn [fst snd map]; [reflexivity| |];
  (destruct srt; cbn [fst snd map]; [exact O|reflexivity]).
Qed.

End Ins.
