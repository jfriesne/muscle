(* C17 -- the theorems of the property, over all operation lists, and the refuted statements for the tree as pinned. *)
From Coq Require Import List NArith ZArith Bool Lia.
From Muscle Require Import Gen.Consts Cont.StrL0 Cont.StrModel Cont.StrSpec Cont.StrLemmas Cont.StrGrow Cont.StrCore Cont.StrOps Cont.StrNulfree Cont.StrRefine.
Import ListNotations.
Local Open Scope N_scope.

(* ------------------------------------------------------------------ the translated constants *)

(* a changed constant in /repo re-checks this *)
Lemma consts_ok :
  c_STRING_SIZEOF = c_STRING_MAX_SHORT_LENGTH + 1 /\ 1 <= c_STRING_MAX_SHORT_LENGTH < 128 /\
  c_MUSCLE_NO_LIMIT = NOLIMIT /\ c_STRING_MAX_LENGTH = 2147483646 /\
  c_STRING_MAX_SHORT_LENGTH + 1 < c_string_small_growth_threshold /\
  c_string_malloc_overhead < c_string_page_size.
Proof. vm_compute. repeat split; congruence. Qed.

Lemma cM_pos : 1 <= c_STRING_MAX_SHORT_LENGTH. Proof. apply consts_ok. Qed.
Lemma cTH_ge : 2 <= c_string_small_growth_threshold. Proof. vm_compute. discriminate. Qed.
Lemma cPG_pos : 0 < c_string_page_size. Proof. vm_compute. reflexivity. Qed.
Lemma cPG_le : c_string_page_size <= 1048576. Proof. vm_compute. discriminate. Qed.
Lemma cOV_lt : c_string_malloc_overhead < c_string_page_size. Proof. apply consts_ok. Qed.
Lemma cM_le : c_STRING_MAX_SHORT_LENGTH <= 1048576. Proof. vm_compute. discriminate. Qed.

(* ------------------------------------------------------------------ level-0 facts about aliasing *)

Lemma lit_of_dealias l a : lit_of l (dealias_s l a) = lit_of l a.
Proof. destruct a; reflexivity. Qed.
Lemma clit_of_dealias l c : clit_of l (dealias_c l c) = clit_of l c.
Proof. destruct c; reflexivity. Qed.

(* at level 0 an aliasing operand *is* a copy: nothing to prove beyond unfolding *)
Lemma step0_dealias l o : step0 l (dealias l o) = step0 l o.
Proof.
  assert (P : forall o, mutate0 l (dealias l o) = mutate0 l o /\ produce0 l (dealias l o) = produce0 l o /\
                        query l l (dealias l o) = query l l o).
  { intros o'. destruct o'; cbn [dealias mutate0 produce0 query]; rewrite ?lit_of_dealias, ?clit_of_dealias;
      splits; try reflexivity; repeat match goal with a : sarg |- _ => destruct a end; reflexivity. }
  destruct o;
    try (match goal with
         | |- step0 l (dealias l ?o0) = step0 l ?o0 =>
             destruct (P o0) as (P1 & P2 & P3); cbn [dealias] in *; cbn [step0]; rewrite ?P1, ?P2, ?P3; reflexivity
         end).
  cbn [dealias step0]. destruct (P o) as (_ & P2 & _). now rewrite P2.
Qed.

Lemma nulfree_clit l c : nulfree l -> carg_ok c -> nulfree (clit_of l c).
Proof. intros H C. destruct c; cbn [clit_of]; [constructor|apply C|now apply nulfree_dropN]. Qed.
Local Hint Resolve nulfree_clit lit_nulfree : nulfree.
Local Hint Resolve -> N.eqb_neq : nulfree.

Lemma produce0_nulfree l o : nulfree l -> args_ok o ->
  match produce0 l o with Some (R0Str x) | Some (R0StrNat x _) => nulfree x | _ => True end.
Proof.
  intros F A. destruct o; cbn [produce0 args_ok] in *; trivial; try destruct A as [A1 A2];
    repeat match goal with |- context [if ?c then _ else _] => destruct c eqn:? end;
    try destruct (l0_last_index_of1 _ _); auto with nulfree.
  unfold l0_without_num_suffix. auto with nulfree.
Qed.

(* the state after any level-0 step is NUL-free again *)
Lemma step0_nulfree l o : nulfree l -> args_ok o -> nulfree (fst (step0 l o)).
Proof.
  (* after unfolding, a case is the level-0 function of its operation applied to NUL-free arguments; the conditionals
     are split and the closure lemma is found in [nulfree] (depth 8: the five characters of "false").  Left over: the
     operations whose result is a pair or an option *)
  intros F A. destruct o; cbn [step0 mutate0 produce0 query fst args_ok] in *; trivial; try destruct A as [A1 A2];
    repeat match goal with |- context [if ?c then _ else _] => destruct c eqn:? end; cbn [fst]; auto 8 with nulfree.
  - (* OReplaceCh *) pose proof (nulfree_replace_ch l a b max from A F) as X. now destruct (l0_replace_ch l a b max from).
  - (* OReplaceS *) pose proof (nulfree_replace_sub l (lit_of l rm) (lit_of l wm) max from F) as X.
    destruct (l0_replace_sub l (lit_of l rm) (lit_of l wm) max from). auto with nulfree.
  - (* OUnflattenW *) unfold read_cstr_w. destruct (list_eqb _ _); cbn [fst]; auto with nulfree.
  - (* OReplaceMulti *) pose proof (nulfree_replace_multi l pairs max A F) as X. now destruct (l0_replace_multi l pairs max).
  - (* OAssign *) pose proof (produce0_nulfree l o F A) as X. destruct (produce0 l o) as [[]|]; trivial.
Qed.

(* the domain of an operation list: each operation is in the domain of the state level 0 has reached *)
Fixpoint run_ok (l : list N) (ops : list op) : Prop :=
  match ops with
  | [] => True
  | o :: t => op_ok l o /\ run_ok (fst (step0 l o)) t
  end.

Lemma dealias_args_ok l o : nulfree l -> lenN l < LIM -> args_ok o -> args_ok (dealias l o).
Proof.
  intros F B. assert (S1 : forall a, sarg_ok a -> sarg_ok (dealias_s l a)) by (intros [x|] H; cbn; [exact H|split; assumption]).
  assert (C1 : forall c, carg_ok c -> carg_ok (dealias_c l c)).
  { intros [|x|off] H; cbn; trivial. split; [now apply nulfree_dropN|rewrite lenN_dropN; lia]. }
  induction o; cbn [dealias args_ok]; intros A; try exact A; try (now apply S1); try (now apply C1); try (exact (IHo A)).
  all: destruct A as [A1 A2]; split; [now apply S1|first [now apply S1|exact A2]].
Qed.
Lemma dealias_need l o : need l (dealias l o) = need l o.
Proof. induction o; cbn [dealias need]; rewrite ?lit_of_dealias, ?clit_of_dealias; trivial. Qed.
Lemma dealias_op_ok l o : nulfree l -> op_ok l o -> op_ok l (dealias l o).
Proof. intros F (B & A & N). split; [exact B|]. split; [now apply dealias_args_ok|now rewrite dealias_need]. Qed.

(* ------------------------------------------------------------------ reading through a window *)

(* nothing outside the window can matter: the window's bytes determine every read *)
Lemma win_remaining_local a1 a2 win r : takeN win a1 = takeN win a2 -> win_remaining a1 win r = win_remaining a2 win r.
Proof. intros H. unfold win_remaining. now rewrite H. Qed.
Lemma read_cstr_w_local a1 a2 win r : takeN win a1 = takeN win a2 -> read_cstr_w a1 win r = read_cstr_w a2 win r.
Proof. intros H. unfold read_cstr_w. now rewrite (win_remaining_local a1 a2 win r H). Qed.
Lemma run_pre_local a1 a2 win ps : takeN win a1 = takeN win a2 -> run_pre a1 win ps = run_pre a2 win ps.
Proof.
  intros H. unfold run_pre. generalize 0. induction ps as [|p ps IH]; intros r; cbn [fold_left]; [reflexivity|].
  assert (E : pre_step a1 win r p = pre_step a2 win r p).
  { destruct p; cbn [pre_step]; [now rewrite (win_remaining_local a1 a2 win r H)|now rewrite (read_cstr_w_local a1 a2 win r H)]. }
  rewrite E. apply IH.
Qed.

(* the read position never leaves the window *)
Lemma read_cstr_w_le arena win r : r <= lenN (takeN win arena) -> snd (read_cstr_w arena win r) <= lenN (takeN win arena).
Proof.
  intros H. unfold read_cstr_w, win_remaining.
  destruct (list_eqb (cstr (dropN r (takeN win arena))) (dropN r (takeN win arena))) eqn:E; cbn [snd]; [exact H|].
  apply cstr_shorter in E. rewrite lenN_dropN in E. lia.
Qed.
Lemma run_pre_le arena win ps : run_pre arena win ps <= lenN (takeN win arena).
Proof.
  unfold run_pre. assert (G : forall r, r <= lenN (takeN win arena) -> fold_left (pre_step arena win) ps r <= lenN (takeN win arena)).
  { induction ps as [|p ps IH]; intros r H; cbn [fold_left]; [exact H|]. apply IH.
    destruct p; cbn [pre_step]; [|now apply read_cstr_w_le].
    unfold win_remaining. rewrite lenN_dropN. destruct (n <=? lenN (takeN win arena) - r) eqn:E; [apply N.leb_le in E; lia|exact H]. }
  apply G. lia.
Qed.
Lemma window_consumed_le arena win ps :
  snd (read_cstr_w arena win (run_pre arena win ps)) <= win.
Proof.
  pose proof (read_cstr_w_le arena win _ (run_pre_le arena win ps)) as H. rewrite lenN_takeN in H. lia.
Qed.

Set Default Proof Using "All".

Section Final.
Variables (M TH PG OV jk : N).
Hypothesis M_pos : 1 <= M.
Hypothesis TH_ge : 2 <= TH.
Hypothesis PG_pos : 0 < PG.
Hypothesis PG_le : PG <= 1048576.
Hypothesis OV_lt : OV < PG.
Hypothesis M_le : M <= 1048576.
Local Instance params : str_params M TH PG OV jk := Build_str_params _ _ _ _ _ M_pos TH_ge PG_pos PG_le OV_lt M_le.

Local Notation slen := (slen M).
Local Notation cap := (cap M).
Local Notation abs := (abs M).
Local Notation inv := (inv M).
Local Notation empty1 := (empty1 M jk).

Local Notation out_inv := (out_inv M).
Local Notation step_refines := (step_refines M TH PG OV jk M_pos TH_ge PG_pos PG_le OV_lt M_le).
Local Notation step1 := (step1 M TH PG OV jk true).
Local Notation exec1 := (exec1 M TH PG OV jk true).
Local Notation abs_out := (abs_out M).
Local Notation flatten1 := (flatten1 M).
Local Notation unflatten1 := (unflatten1 M TH PG OV jk true).
Local Notation prealloc := (prealloc M TH PG OV jk true).
Local Notation shrink_to_fit := (shrink_to_fit M TH PG OV jk true).

(* C17, main theorem: along every operation list the storage invariant holds (NUL-terminated, length inside the
   capacity, small-buffer/heap bookkeeping consistent) and the level-1 String -- whatever its storage mode and
   capacity, and whichever operands alias it -- yields exactly the results and the value of the ideal byte string *)
Theorem exec_refines ops : forall s,
  inv s -> nulfree (abs s) -> run_ok (abs s) ops ->
  inv (fst (exec1 s ops)) /\ nulfree (abs (fst (exec1 s ops))) /\
  abs (fst (exec1 s ops)) = fst (exec0 (abs s) ops) /\
  map abs_out (snd (exec1 s ops)) = snd (exec0 (abs s) ops) /\
  Forall out_inv (snd (exec1 s ops)).
Proof.
  induction ops as [|o t IH]; intros s I F R; cbn [StrSpec.exec1 exec0].
  - cbn [fst snd map]. splits; trivial.
  - destruct R as [Ok R].
    destruct (step_refines s o I F Ok) as (I1 & A1 & O1 & V1).
    pose proof (step0_nulfree (abs s) o F (proj1 (proj2 Ok))) as F1.
    destruct (step1 s o) as [s1 r] eqn:E1. destruct (step0 (abs s) o) as [l1 r0] eqn:E0. cbn [fst snd] in *.
    subst l1. specialize (IH s1 I1 F1 R).
    destruct (exec1 s1 t) as [s2 rs]. destruct (exec0 (abs s1) t) as [l2 rs0]. cbn [fst snd map] in *.
    destruct IH as (I2 & F2 & A2 & O2 & V2). splits; trivial; [now rewrite O1, O2|now constructor].
Qed.

(* "regardless of whether the contents live in the small buffer or on the heap": two Strings with the same bytes,
   in any two storage states, give the same results and end with the same bytes *)
Theorem storage_irrelevant ops s1 s2 :
  inv s1 -> inv s2 -> nulfree (abs s1) -> abs s1 = abs s2 -> run_ok (abs s1) ops ->
  abs (fst (exec1 s1 ops)) = abs (fst (exec1 s2 ops)) /\
  map abs_out (snd (exec1 s1 ops)) = map abs_out (snd (exec1 s2 ops)).
Proof.
  intros I1 I2 F E R.
  destruct (exec_refines ops s1 I1 F R) as (_ & _ & A1 & O1 & _).
  rewrite E in F, R. destruct (exec_refines ops s2 I2 F R) as (_ & _ & A2 & O2 & _).
  rewrite E in A1, O1. split; congruence.
Qed.

(* "operations whose arguments alias the String itself give the same result as with a separate copy" *)
Theorem alias_eq s o :
  inv s -> nulfree (abs s) -> op_ok (abs s) o ->
  abs (fst (step1 s o)) = abs (fst (step1 s (dealias (abs s) o))) /\
  abs_out (snd (step1 s o)) = abs_out (snd (step1 s (dealias (abs s) o))).
Proof.
  intros I F Ok.
  destruct (step_refines s o I F Ok) as (_ & A1 & O1 & _).
  destruct (step_refines s (dealias (abs s) o) I F (dealias_op_ok _ _ F Ok)) as (_ & A2 & O2 & _).
  rewrite step0_dealias in A2, O2. split; congruence.
Qed.

(* Unflatten of what Flatten wrote yields the C-string view of the value: the bytes before the first NUL *)
Lemma unflatten_of_flatten s t :
  inv s -> slen s + 1 < LIM -> inv t ->
  flatten1 s = abs s ++ [0] /\
  exists t', unflatten1 t (flatten1 s) = (StOk, t') /\ inv t' /\ abs t' = cstr (abs s ++ [0]).
Proof.
  intros I B It. rewrite (flatten_spec s I). split; [reflexivity|].
  pose proof (unflatten_spec t (abs s ++ [0]) It) as U.
  destruct (list_eqb _ _) eqn:E; [|apply U; rewrite lenN_app, lenN_cons, lenN_nil, (lenN_abs s I); lia].
  apply cstr_fixpoint_unterminated, nulfree_app in E. destruct E as [_ X]. inversion X. congruence.
Qed.

(* "A String serialises to its bytes plus one NUL and parses back to an equal String ..." *)
Theorem flatten_roundtrip s t :
  inv s -> nulfree (abs s) -> slen s + 1 < LIM -> inv t ->
  flatten1 s = abs s ++ [0] /\
  exists t', unflatten1 t (flatten1 s) = (StOk, t') /\ inv t' /\ abs t' = abs s.
Proof.
  intros I F B It. destruct (unflatten_of_flatten s t I B It) as (X & t' & Et & I' & A').
  rewrite cstr_nulfree_app in A' by trivial. split; [exact X|]. now exists t'.
Qed.
(* "... rejecting unterminated input" (and leaving the String as it was) *)
Theorem unflatten_rejects_unterminated t bytes :
  inv t -> lenN bytes < LIM -> nulfree bytes -> unflatten1 t bytes = (StErr, t).
Proof. intros It B F. pose proof (unflatten_spec t bytes It B) as U. apply cstr_fixpoint_unterminated in F. now rewrite F in U. Qed.

(* F9, the domain boundary: a String holding an embedded NUL (only obtainable through += char(0) or a write through
   operator[]) flattens Length()+1 bytes and parses back truncated at the first NUL *)
Theorem nul_string_truncates s t a b :
  inv s -> abs s = a ++ 0 :: b -> nulfree a -> slen s + 1 < LIM -> inv t ->
  flatten1 s = abs s ++ [0] /\
  exists t', unflatten1 t (flatten1 s) = (StOk, t') /\ abs t' = a.
Proof.
  intros I E Fa B It. destruct (unflatten_of_flatten s t I B It) as (X & t' & Et & _ & A'). split; [exact X|].
  exists t'. split; trivial. rewrite A', E, <- app_assoc. now apply cstr_nulfree_app.
Qed.

(* Prealloc and ShrinkToFit never change the value, for every argument (no size premise) *)
Theorem prealloc_value_safe s n : inv s -> inv (snd (prealloc s n)) /\ abs (snd (prealloc s n)) = abs s.
Proof. apply prealloc_safe. Qed.
Theorem shrink_value_safe s extra : inv s -> inv (snd (shrink_to_fit s extra)) /\ abs (snd (shrink_to_fit s extra)) = abs s.
Proof. apply shrink_safe. Qed.

(* "mode agrees with the capacity threshold": after ShrinkToFit() a String that fits the small buffer lives there,
   any other String owns a heap buffer of exactly Length()+1 bytes *)
Theorem shrink_mode s : inv s -> slen s + 1 < 2147483648 ->
  let s' := snd (shrink_to_fit s 0) in
  (slen s <= M -> is_long s' = false) /\ (M < slen s -> is_long s' = true /\ StrModel.cap M s' = slen s + 1).
Proof.
  intros I B s'. unfold s', StrModel.shrink_to_fit.
  pose proof (inv_lt s I) as Lt. pose proof (inv_len s I) as Ln.
  rewrite N.min_0_l, N.add_0_r. rewrite u32_small by lia.
  unfold StrModel.ensure.
  destruct (slen s + 1 =? StrModel.cap M s) eqn:E1.
  { apply N.eqb_eq in E1. cbn [snd]. destruct s as [b|h n c]; cbn [StrModel.cap StrModel.slen is_long] in *.
    - split; [reflexivity|intros; lia].
    - destruct I as (_ & _ & _ & I4). split; [intros; lia|intros; split; [reflexivity|lia]]. }
  cbn [orb]. rewrite N.ltb_irrefl.
  rewrite (eqb_f (slen s + 1) 0) by lia.
  rewrite (leb_f 2147483648 (slen s + 1)) by lia.
  destruct (slen s + 1 <=? M + 1) eqn:E2; [apply N.leb_le in E2|apply N.leb_gt in E2];
    destruct (is_long s); cbn [andb snd]; split; intros H; try lia;
    try reflexivity; try (split; reflexivity).
Qed.

(* String::Unflatten on a DataUnflattener that is a window onto a larger array and has already been read from: the
   bytes outside the window never influence the result ... *)
Theorem unflatten_window_local fx s a1 a2 win ps :
  takeN win a1 = takeN win a2 ->
  StrModel.step1 M TH PG OV jk fx s (OUnflattenW a1 win ps) = StrModel.step1 M TH PG OV jk fx s (OUnflattenW a2 win ps).
Proof.
  intros H. cbn [StrModel.step1 StrModel.mutate].
  rewrite (run_pre_local a1 a2 win ps H).
  rewrite (win_remaining_local a1 a2 win _ H), (read_cstr_w_local a1 a2 win _ H). reflexivity.
Qed.
(* ... and a remainder without a terminator inside the window is rejected: the String keeps its value, nothing is consumed *)
Theorem unflatten_window_rejects s arena win ps :
  inv s -> lenN arena < LIM -> nulfree (win_remaining arena win (run_pre arena win ps)) ->
  step1 s (OUnflattenW arena win ps) = (s, R1Int (w_result false (run_pre arena win ps))).
Proof.
  intros I B F. cbn [StrModel.step1 StrModel.mutate].
  set (r0 := run_pre arena win ps) in *. set (rem := win_remaining arena win r0) in *.
  assert (Lr : lenN rem < LIM) by (unfold rem, win_remaining; rewrite lenN_dropN, lenN_takeN; lia).
  pose proof (unflatten_spec s rem I Lr) as U. unfold read_cstr_w. fold rem.
  apply cstr_fixpoint_unterminated in F. rewrite F in *. now rewrite U.
Qed.

End Final.

(* ------------------------------------------------------------------ the tree as pinned (fixed = false) *)

(* the constants of a 64-bit build of /repo (as Gen/Consts.v translates them), written out so that the witnesses below
   are closed terms; 170 (0xAA) stands for the indeterminate bytes *)
Definition pM := 15. Definition pTH := 32. Definition pPG := 4096. Definition pOV := 12.
Definition abc1 (fixed : bool) (pre : N) : str1 :=      (* String(PreallocatedItemSlotsCount(pre), "abc") *)
  ctor_pre_lit pM pTH pPG pOV 170 fixed pre [97; 98; 99].

(* F27: on the pinned tree Prealloc(2^30+1) reports success and empties a non-empty String *)
Lemma pinned_prealloc_refuted :
  exists s n, abs pM s = [97; 98; 99] /\
              fst (prealloc pM pTH pPG pOV 170 false s n) = StOk /\ abs pM (snd (prealloc pM pTH pPG pOV 170 false s n)) = [].
Proof. exists (abc1 false 0), 1073741825. vm_compute. repeat split. Qed.
(* ... the repaired code refuses the same request and keeps the value *)
Example fixed_prealloc_same_witness :
  fst (prealloc pM pTH pPG pOV 170 true (abc1 true 0) 1073741825) = StErr /\
  abs pM (snd (prealloc pM pTH pPG pOV 170 true (abc1 true 0) 1073741825)) = [97; 98; 99].
Proof. vm_compute. split; reflexivity. Qed.

(* F28: on the pinned tree Unflatten accepts unterminated input (and clears the String) *)
Lemma pinned_unflatten_refuted :
  exists s bytes, nulfree bytes /\ fst (unflatten1 pM pTH pPG pOV 170 false s bytes) = StOk.
Proof. exists (abc1 false 0), [97; 98; 99]. split; [repeat constructor; discriminate|vm_compute; reflexivity]. Qed.

(* F58: on the pinned tree GetDistanceTo(other, maxResult) left its loop as soon as the last column reached maxResult,
   although the distance can still shrink: "abc" -> "xabc" is one insertion, but with maxResult = 2 the answer was 2 *)
Lemma pinned_distance_refuted :
  exists a b max, l0_distance a b max < max /\ distance_code false a b max = max.
Proof. exists [97; 98; 99], [120; 97; 98; 99], 2. vm_compute. split; reflexivity. Qed.
Example fixed_distance_same_witness :
  distance_code true [97; 98; 99] [120; 97; 98; 99] 2 = l0_distance [97; 98; 99] [120; 97; 98; 99] 2 /\
  distance_code true [107;105;116;116;101;110] [115;105;116;116;105;110;103] 3 = 3 /\
  distance_code true [107;105;116;116;101;110] [115;105;116;116;105;110;103] NOLIMIT = 3.
Proof. vm_compute. repeat split. Qed.

(* on the pinned tree the matcher of Replace/WithReplacements(Hashtable) restarted a partially matched key from its
   first character: "aab" is not found in "aaab", although it occurs at offset 1 *)
Lemma pinned_multi_match_refuted :
  exists key l, key_at [(key, [88])] (dropN 1 l) = Some (key, [88]) /\ naive_matches key key l 0 = [].
Proof. exists [97; 97; 98], [97; 97; 97; 98]. vm_compute. split; reflexivity. Qed.
Example naive_matches_finds_plain : naive_matches [97; 98] [97; 98] [120; 97; 98; 97; 98] 0 = [1; 3].
Proof. vm_compute. reflexivity. Qed.

(* F31: on the pinned tree ShrinkToFit(2^32-1) cuts the last character off a small-buffer String, and leaves a
   heap String whose length equals its capacity (the terminator lies outside the buffer) *)
Lemma pinned_shrink_refuted :
  exists s extra, let s' := snd (shrink_to_fit pM pTH pPG pOV 170 false s extra) in
                  abs pM s = [97; 98; 99] /\ abs pM s' = [97; 98].
Proof. exists (abc1 false 0), 4294967295. vm_compute. split; reflexivity. Qed.
Definition long17 (fixed : bool) : str1 := ctor_pre_lit pM pTH pPG pOV 170 fixed 0 (repN 97 17).
Lemma pinned_shrink_unterminated :
  exists s extra, let s' := snd (shrink_to_fit pM pTH pPG pOV 170 false s extra) in
                  is_long s' = true /\ slen pM s' = cap pM s'.
Proof. exists (long17 false), 4294967295. vm_compute. split; reflexivity. Qed.
Example fixed_shrink_same_witness :
  abs pM (snd (shrink_to_fit pM pTH pPG pOV 170 true (abc1 true 0) 4294967295)) = [97; 98; 99] /\
  abs pM (snd (shrink_to_fit pM pTH pPG pOV 170 true (long17 true) 4294967295)) = repN 97 17.
Proof. vm_compute. split; reflexivity. Qed.

(* ------------------------------------------------------------------ instantiation at the translated constants *)

Notation cM := c_STRING_MAX_SHORT_LENGTH (only parsing).
Notation cTH := c_string_small_growth_threshold (only parsing).
Notation cPG := c_string_page_size (only parsing).
Notation cOV := c_string_malloc_overhead (only parsing).

Definition c17_exec_refines jk := exec_refines cM cTH cPG cOV jk cM_pos cTH_ge cPG_pos cPG_le cOV_lt cM_le.
Definition c17_step_refines jk := StrRefine.step_refines cM cTH cPG cOV jk cM_pos cTH_ge cPG_pos cPG_le cOV_lt cM_le.
Definition c17_storage_irrelevant jk := storage_irrelevant cM cTH cPG cOV jk cM_pos cTH_ge cPG_pos cPG_le cOV_lt cM_le.
Definition c17_alias_eq jk := alias_eq cM cTH cPG cOV jk cM_pos cTH_ge cPG_pos cPG_le cOV_lt cM_le.
Definition c17_flatten_roundtrip jk := flatten_roundtrip cM cTH cPG cOV jk cM_pos cTH_ge cPG_pos cPG_le cOV_lt cM_le.
Definition c17_unflatten_rejects jk := unflatten_rejects_unterminated cM cTH cPG cOV jk cM_pos cTH_ge cPG_pos cPG_le cOV_lt cM_le.
Definition c17_nul_string_truncates jk := nul_string_truncates cM cTH cPG cOV jk cM_pos cTH_ge cPG_pos cPG_le cOV_lt cM_le.
Definition c17_shrink_mode jk := shrink_mode cM cTH cPG cOV jk cM_pos cTH_ge cPG_pos cPG_le cOV_lt cM_le.
Definition c17_unflatten_window_local jk := unflatten_window_local cM cTH cPG cOV jk cM_pos cTH_ge cPG_pos cPG_le cOV_lt cM_le.
Definition c17_unflatten_window_rejects jk := unflatten_window_rejects cM cTH cPG cOV jk cM_pos cTH_ge cPG_pos cPG_le cOV_lt cM_le.
Definition c17_prealloc_value_safe jk := prealloc_value_safe cM cTH cPG cOV jk cM_pos cTH_ge cPG_pos cPG_le cOV_lt cM_le.
Definition c17_shrink_value_safe jk := shrink_value_safe cM cTH cPG cOV jk cM_pos cTH_ge cPG_pos cPG_le cOV_lt cM_le.

Lemma c17_empty_ok jk : inv cM (empty1 cM jk) /\ abs cM (empty1 cM jk) = [] /\ is_long (empty1 cM jk) = false.
Proof. destruct (inv_empty1 (P := params cM cTH cPG cOV jk cM_pos cTH_ge cPG_pos cPG_le cOV_lt cM_le)) as (A & _ & B & C). now splits. Qed.

Lemma c17_from_empty jk ops :
  run_ok [] ops ->
  let r := exec1 cM cTH cPG cOV jk true (empty1 cM jk) ops in
  inv cM (fst r) /\ abs cM (fst r) = fst (exec0 [] ops) /\ map (abs_out cM) (snd r) = snd (exec0 [] ops).
Proof.
  intros R r. destruct (c17_empty_ok jk) as (I & A & _).
  destruct (c17_exec_refines jk ops (empty1 cM jk) I) as (X1 & _ & X3 & X4 & _); rewrite ?A; trivial; [constructor|].
  unfold r. rewrite A in *. now splits.
Qed.

(* ------------------------------------------------------------------ non-vacuity *)

Ltac decide_ok :=
  vm_compute;
  repeat match goal with
         | |- _ /\ _ => split
         | |- True => exact I
         | |- Forall _ _ => constructor
         | |- _ = _ => reflexivity
         | |- _ -> False => let H := fresh in intros H; discriminate H
         end.

(* a script that crosses the small-buffer boundary with aliased operands is in the domain of the theorems:
   "abcdefgh"; s += s()+3; s += s; s = s.Substring(1,20); Prealloc(100); ShrinkToFit(); Replace(s, "xy"); s.Arg(s) *)
Definition ex_ops : list op :=
  [OSetCstr (CLit [97;98;99;100;101;102;103;104]) NOLIMIT; OAppendC (CSelf 3); OAppendS ASelf; OAssign (OSubstring 1 20);
   OPrealloc 100; OShrink 0; OReplaceS ASelf (ALit [37;49;120;121]) NOLIMIT 0; OAssign (OArgS ASelf); OFlatten].
Example ex_run_ok : run_ok [] ex_ops.
Proof. decide_ok. Qed.
Example ex_run_nontrivial :
  let r := exec1 cM cTH cPG cOV 170 true (empty1 cM 170) ex_ops in
  is_long (fst r) = false /\ abs cM (fst r) = [37;49;120;121;120;121] /\
  existsb (fun o => match o with R1Str x => is_long x | _ => false end) (snd r) = true.
Proof. vm_compute. repeat split. Qed.
(* ... and so is a script over Replace(Hashtable), GetDistanceTo, the Word and Arg(double) families: "aaab", simultaneous replacement {aab->X} (the case the pinned matcher
   missed), distance to a longer string with a maximum, a word insertion, Arg of the text printf gave for 2.5 *)
Definition ex_ops2 : list op :=
  [OSetCstr (CLit [97;97;97;98;37;49]) NOLIMIT; OReplaceMulti [([97;97;98], [88]); ([97], [89;89])] NOLIMIT;
   OGetDistance (ALit [120;97;88;37;49]) 2; OAssign (OWithWord NOLIMIT ASelf [32]);
   OAssign (OArgFloatText [50;46;53;48;48;48;48;48] 3); OAssign (OIndented 2 32); ONumCmp ASelf true; OFlatten].
Example ex_run_ok2 : run_ok [] ex_ops2.
Proof. decide_ok. Qed.
Example ex_run_nontrivial2 : fst (exec0 [] ex_ops2) = [32;32;89;89;88;50;46;53;48;48;32;89;89;88;50;46;53;48;48].
Proof. vm_compute. reflexivity. Qed.

(* the premises of storage_irrelevant / alias_eq / flatten_roundtrip are met by a small-buffer and a heap String
   holding the same bytes *)
Example ex_two_modes :
  let s1 := abc1 true 0 in let s2 := abc1 true 40 in
  inv pM s1 /\ inv pM s2 /\ is_long s1 = false /\ is_long s2 = true /\ abs pM s1 = abs pM s2 /\ nulfree (abs pM s1) /\
  op_ok (abs pM s1) (OAppendC (CSelf 1)) /\ slen pM s1 + 1 < LIM.
Proof. decide_ok. Qed.
