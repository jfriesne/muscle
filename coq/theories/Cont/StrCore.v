(* C17 -- the storage invariant, the commit lemma and the specification of EnsureBufferSize. *)
From Coq Require Import List NArith ZArith Bool Lia.
From Muscle Require Import Cont.StrL0 Cont.StrModel Cont.StrLemmas Cont.StrGrow.
Import ListNotations.
Local Open Scope N_scope.

Section Inv.
Variable M : N.
Local Notation slen := (slen M).
Local Notation cap := (cap M).

(* the representation invariant: the buffer has the advertised size, the length is inside it and the byte
   at Length() is NUL; the small buffer is exactly M+1 bytes whose last one is the free count; a heap
   buffer is bigger than the small one and below 2^31 *)
Definition inv (s : str1) : Prop :=
  lenN (buf s) = cap s /\ slen s < cap s /\ nthN (slen s) (buf s) = 0 /\
  match s with
  | Short b => nthN M b <= M
  | Long _ _ c => M + 1 < c /\ c < 2147483648
  end.

(* the simulation relation: a level-1 String in its invariant that holds the bytes [l] *)
Definition rep (s : str1) (l : list N) : Prop := inv s /\ abs M s = l.
End Inv.

Section Core.
Context {M TH PG OV jk : N} {P : str_params M TH PG OV jk}.
(* every lemma takes the instance: it fixes the parameters wherever the lemma is used *)
Local Set Default Proof Using "P".

Local Notation slen := (slen M).
Local Notation cap := (cap M).
Local Notation abs := (abs M).
Local Notation inv := (inv M).
Local Notation rep := (rep M).
Local Notation set_len := (set_len M).
Local Notation commit := (commit M).
Local Notation empty1 := (empty1 M jk).
Local Notation clear_and_flush := (clear_and_flush M jk).
Local Notation ensure := (ensure M TH PG OV jk true).

Lemma inv_len s : inv s -> lenN (buf s) = cap s. Proof. now intros (H & _). Qed.
Lemma inv_lt s : inv s -> slen s < cap s. Proof. now intros (_ & H & _). Qed.
Lemma inv_nul s : inv s -> nthN (slen s) (buf s) = 0. Proof. now intros (_ & _ & H & _). Qed.
Lemma rep_eq s l l' : rep s l -> l = l' -> rep s l'.
Proof. now intros R <-. Qed.
Lemma lenN_abs s : inv s -> lenN (abs s) = slen s.
Proof. intros H. unfold StrModel.abs. rewrite lenN_takeN, (inv_len _ H). pose proof (inv_lt _ H). lia. Qed.
Lemma rep_len s l : rep s l -> slen s = lenN l.
Proof. intros [I <-]. symmetry. now apply lenN_abs. Qed.

Lemma set_len_short_spec b n :
  lenN b = M + 1 -> n <= M -> nthN n b = 0 ->
  let s' := set_len (Short b) n in
  inv s' /\ slen s' = n /\ abs s' = takeN n b /\ is_long s' = false.
Proof.
  intros L Hn Z s'. unfold s'. cbn [StrModel.set_len].
  assert (E : nthN M (upd b M (M - n)) = M - n) by (apply nthN_upd_same; lia).
  assert (S : slen (Short (upd b M (M - n))) = n) by (cbn [StrModel.slen]; rewrite E; lia).
  unfold StrCore.inv, StrModel.abs. rewrite S. cbn [buf StrModel.cap is_long].
  rewrite lenN_upd by lia. rewrite takeN_upd_before by lia.
  repeat split; try lia; trivial.
  destruct (N.eq_dec n M) as [->|D].
  - rewrite E. lia.
  - rewrite nthN_upd_other by lia. assumption.
Qed.

Lemma commit_spec s b n :
  inv s -> lenN b = cap s -> n < cap s -> nthN n b = 0 -> rep (commit s b n) (takeN n b).
Proof.
  intros I L Hn Z. destruct s as [b0|h n0 c]; cbn [StrModel.commit StrModel.wbuf StrModel.cap] in *.
  - destruct (set_len_short_spec b n) as (A1 & A2 & A3 & A4); trivial; [lia|]. now split.
  - destruct I as (_ & _ & _ & I4).
    unfold StrCore.rep, StrCore.inv, StrModel.abs. cbn [StrModel.set_len buf StrModel.cap StrModel.slen]. repeat split; trivial; lia.
Qed.

Lemma inv_clear_short b : lenN b = M + 1 ->
  inv (clear_short M b) /\ slen (clear_short M b) = 0 /\ abs (clear_short M b) = [] /\ is_long (clear_short M b) = false.
Proof.
  intros Lb. pose proof M_pos. unfold clear_short.
  destruct (set_len_short_spec (upd b 0 0) 0) as (A1 & A2 & A3 & A4); try lia.
  - rewrite lenN_upd; lia.
  - apply nthN_upd_same. lia.
  - cbn [StrModel.set_len] in *. rewrite N.sub_0_r, ?takeN_0 in *. now splits.
Qed.

Lemma inv_empty1 : inv empty1 /\ slen empty1 = 0 /\ abs empty1 = [] /\ is_long empty1 = false.
Proof. apply inv_clear_short, lenN_repN. Qed.

Lemma inv_clear_and_flush s : inv s ->
  inv (clear_and_flush s) /\ slen (clear_and_flush s) = 0 /\ abs (clear_and_flush s) = [] /\ is_long (clear_and_flush s) = false.
Proof.
  intros I. destruct s as [b|h n c]; cbn [StrModel.clear_and_flush].
  - apply inv_clear_short. exact (inv_len _ I).
  - apply inv_empty1.
Qed.

Lemma ensure_enough s req retain : req <= cap s -> ensure s req retain false = (StOk, s).
Proof. intros H. unfold StrModel.ensure. apply N.leb_le in H. now rewrite H. Qed.

(* the heap buffer a (re)allocation ends with: [nbuf] with a NUL written at min(old length, nb-1) *)
Lemma inv_fin nbuf old nb :
  lenN nbuf = nb -> old < nb -> M + 1 < nb -> nb < 2147483648 ->
  inv (Long (upd nbuf (N.min old (nb - 1)) 0) old nb).
Proof.
  intros L O G B. replace (N.min old (nb - 1)) with old by lia.
  unfold inv. cbn [buf StrModel.cap StrModel.slen]. rewrite lenN_upd by lia.
  repeat split; try lia. apply nthN_upd_same. lia.
Qed.

(* ... and keeps the value when [nbuf] starts with the old bytes *)
Lemma fin_keeps s nbuf nb :
  inv s -> lenN nbuf = nb -> slen s < nb -> M + 1 < nb -> nb < 2147483648 -> takeN (slen s) nbuf = abs s ->
  let s' := Long (upd nbuf (N.min (slen s) (nb - 1)) 0) (slen s) nb in inv s' /\ abs s' = abs s /\ slen s' = slen s.
Proof.
  intros I L O G B E. split; [now apply inv_fin|]. split; [|reflexivity].
  unfold StrModel.abs at 1. cbn [StrModel.slen buf]. replace (N.min (slen s) (nb - 1)) with (slen s) by lia.
  now rewrite takeN_upd_before by lia.
Qed.

(* growing, with the value retained (Prealloc, +=, InsertChars) or not (SetCstr, SetFromString) *)
Lemma ensure_spec s req retain :
  inv s ->
  match ensure s req retain false with
  | (StOk, s') => inv s' /\ req <= cap s' /\
                  (retain = true -> slen s' = slen s /\ takeN (slen s + 1) (buf s') = takeN (slen s + 1) (buf s))
  | (StErr, s') => s' = s
  end.
Proof.
  intros I. unfold StrModel.ensure.
  destruct (req <=? cap s) eqn:E1.
  { apply N.leb_le in E1. now splits. }
  apply N.leb_gt in E1. cbn [orb andb].
  set (nb := if (req <=? M + 1) || ((slen s =? 0) && negb (is_long s)) then req else next_buf_size M TH PG OV req).
  destruct (nb <? req) eqn:E2; [reflexivity|]. apply N.ltb_ge in E2.
  destruct (nb =? 0) eqn:E3.
  { apply N.eqb_eq in E3. pose proof (inv_lt _ I). lia. }
  destruct (2147483648 <=? nb) eqn:E4; [reflexivity|]. apply N.leb_gt in E4.
  pose proof (inv_lt _ I) as Lt. pose proof (inv_len _ I) as Ln. pose proof (inv_nul _ I) as Nu.
  assert (G : M + 1 < nb) by (destruct s; cbn [StrModel.cap] in *; destruct I as (_ & _ & _ & I4); lia).
  (* every branch ends with a heap buffer [nbuf]; when the value is retained it starts with the old bytes and their NUL *)
  assert (Fin : forall nbuf, lenN nbuf = nb ->
            (retain = true -> takeN (slen s + 1) nbuf = takeN (slen s + 1) (buf s)) ->
            let s' := Long (upd nbuf (N.min (slen s) (nb - 1)) 0) (slen s) nb in
            inv s' /\ req <= cap s' /\
            (retain = true -> slen s' = slen s /\ takeN (slen s + 1) (buf s') = takeN (slen s + 1) (buf s))).
  { intros nbuf Lb Hr s'. unfold s'. split; [apply inv_fin; trivial; lia|]. split; [cbn [StrModel.cap]; lia|].
    intros Rt. split; [reflexivity|]. cbn [buf]. replace (N.min (slen s) (nb - 1)) with (slen s) by lia.
    rewrite (upd_same nbuf); [now apply Hr|lia|].
    rewrite <- (nthN_takeN (slen s) (slen s + 1)), (Hr Rt), nthN_takeN by lia. exact Nu. }
  destruct retain; [destruct (is_long s)|]; apply Fin.
  - rewrite lenN_app, lenN_takeN, lenN_repN. lia.
  - intros _. rewrite takeN_app_le by (rewrite lenN_takeN; lia). rewrite takeN_takeN. f_equal. lia.
  - rewrite lenN_blit; rewrite ?lenN_takeN, ?lenN_repN; lia.
  - intros _. replace (N.min (slen s + 1) nb) with (slen s + 1) by lia.
    rewrite takeN_blit_0 by (rewrite lenN_takeN; lia). rewrite takeN_takeN. f_equal. lia.
  - rewrite lenN_upd; rewrite lenN_repN; lia.
  - discriminate.
Qed.

(* ShrinkToFit: exact size, value retained *)
Lemma ensure_shrink s req :
  inv s -> slen s < req ->
  match ensure s req true true with
  | (StOk, s') => inv s' /\ abs s' = abs s /\ slen s' = slen s
  | (StErr, s') => s' = s
  end.
Proof.
  intros I R. unfold StrModel.ensure.
  destruct (req =? cap s) eqn:E1.
  { split; [exact I|]. split; trivial. }
  apply N.eqb_neq in E1. cbn [orb andb].
  rewrite N.ltb_irrefl.
  destruct (req =? 0) eqn:E3; [apply N.eqb_eq in E3; lia|].
  destruct (2147483648 <=? req) eqn:E4; [reflexivity|]. apply N.leb_gt in E4.
  pose proof (inv_lt _ I) as Lt. pose proof (inv_len _ I) as Ln. pose proof (inv_nul _ I) as Nu.
  destruct (is_long s) eqn:D; destruct (req <=? M + 1) eqn:E5.
  - (* heap -> small buffer *)
    apply N.leb_le in E5.
    set (b := upd (blit (fresh_short M jk) 0 (takeN (slen s) (buf s))) (slen s) 0).
    assert (Lt' : lenN (takeN (slen s) (buf s)) = slen s) by (rewrite lenN_takeN; lia).
    assert (Lf : lenN (fresh_short M jk) = M + 1) by (unfold fresh_short; apply lenN_repN).
    assert (Lb : lenN b = M + 1) by (unfold b; rewrite lenN_upd; rewrite lenN_blit; lia).
    destruct (set_len_short_spec b (slen s)) as (A1 & A2 & A3 & _); try lia.
    { unfold b. apply nthN_upd_same. rewrite lenN_blit; lia. }
    split; [exact A1|]. split; [|exact A2].
    rewrite A3. unfold b, StrModel.abs. rewrite takeN_upd_before by (rewrite ?lenN_blit; lia).
    rewrite takeN_blit_0 by lia. rewrite takeN_takeN. f_equal. lia.
  - (* realloc to the exact size *)
    apply N.leb_gt in E5. apply fin_keeps; trivial; try lia.
    + rewrite lenN_app, lenN_takeN, lenN_repN. lia.
    + rewrite takeN_app_le by (rewrite lenN_takeN; lia). rewrite takeN_takeN. unfold StrModel.abs. f_equal. lia.
  - (* small buffer stays: Truncate *)
    apply N.leb_le in E5. destruct s as [b|]; [|discriminate D]. cbn [StrModel.cap StrModel.slen buf] in *.
    destruct I as (_ & _ & _ & I4).
    unfold short_truncate. cbn [buf].
    set (b1 := upd b (req - 1) 0).
    assert (Lb1 : lenN b1 = M + 1) by (unfold b1; rewrite lenN_upd; lia).
    assert (EM : nthN M b1 = nthN M b) by (unfold b1; apply nthN_upd_other; lia).
    rewrite EM. replace (M - N.min (req - 1) (M - nthN M b)) with (nthN M b) by lia.
    rewrite (upd_same b1) by (trivial; lia).
    assert (Z : nthN (M - nthN M b) b1 = 0).
    { unfold b1. destruct (N.eq_dec (M - nthN M b) (req - 1)) as [->|Dn].
      - apply nthN_upd_same. lia.
      - rewrite nthN_upd_other by lia. exact Nu. }
    unfold inv, StrModel.abs. cbn [StrModel.cap StrModel.slen buf]. rewrite EM.
    repeat split; trivial; try lia.
    unfold b1. apply takeN_upd_before; lia.
  - (* small buffer -> heap of the exact size *)
    apply N.leb_gt in E5. replace (N.min (slen s + 1) req) with (slen s + 1) by lia.
    assert (Lt' : lenN (takeN (slen s + 1) (buf s)) = slen s + 1) by (rewrite lenN_takeN; lia).
    apply fin_keeps; trivial; try lia.
    + rewrite lenN_blit; rewrite ?lenN_repN; lia.
    + rewrite takeN_blit_0 by lia. rewrite takeN_takeN. unfold StrModel.abs. f_equal. lia.
Qed.

(* with the repaired size check, requests up to 2^30 bytes always succeed *)

Lemma ensure_ok s req retain : inv s -> req <= 1073741824 -> fst (ensure s req retain false) = StOk.
Proof.
  intros I R. unfold StrModel.ensure.
  destruct (req <=? cap s) eqn:E1; [reflexivity|]. apply N.leb_gt in E1. cbn [orb andb].
  pose proof (inv_lt _ I) as Lt.
  assert (R1 : 1 <= req) by lia.
  destruct (next_buf_size_ok req R1 R) as [B1 B2].
  set (nb := if (req <=? M + 1) || ((slen s =? 0) && negb (is_long s)) then req else next_buf_size M TH PG OV req).
  assert (Bn : req <= nb /\ nb < 2147483648).
  { unfold nb. destruct ((req <=? M + 1) || ((slen s =? 0) && negb (is_long s))); lia. }
  destruct Bn as [Bn1 Bn2].
  rewrite (ltb_f nb req) by lia.
  rewrite (eqb_f nb 0) by lia.
  rewrite (leb_f 2147483648 nb) by lia.
  destruct retain; [destruct (is_long s)|]; reflexivity.
Qed.

End Core.
