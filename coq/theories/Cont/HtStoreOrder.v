(* C09 -- the order in which the storage layer re-inserts its entries on reallocation (the run's
   [r_order]: insertion order, replaced values in place, removed entries dropped) is the iteration
   order of the plain Hashtable: after every history of Put / Get / Remove / EnsureSize the pairs held by
   the slots of [r_order] are exactly the association list of the L0 model (class VPlain). *)
From Coq Require Import List Arith ZArith NArith Lia.
From Muscle Require Import Cont.HtModel Cont.HtStep Cont.HtIdeal Cont.HtLemmas Cont.HtIdealLaws
                           Cont.HtRefine Cont.HtStore Cont.HtStoreProofs Cont.HtStoreLink.
Import ListNotations.

Definition st_kv (sl : list slot) (i : nat) : Z * Z := (st_gk sl i, st_gv sl i).

Lemma st_kv_wrote : forall {sl sl' e h k v} y,
  st_wrote sl sl' e h k v -> st_kv sl' y = if e =? y then (k, v) else st_kv sl y.
Proof. intros sl sl' e h k v y W. unfold st_kv. rewrite (wr_gk W), (wr_gv W). destruct (e =? y); reflexivity. Qed.

(* writing (k, v) to the one slot of the order that holds key k is a_set on the pairs *)
Lemma order_set_val : forall sl sl' i h k v order, st_wrote sl sl' i h k v -> NoDup order ->
  st_gk sl i = k -> (forall y, In y order -> st_gk sl y = k -> y = i) ->
  map (st_kv sl') order = a_set (map (st_kv sl) order) k v.
Proof.
  intros sl sl' i h k v order W Hnd Eki Huniq. induction order as [|x r IH]; [reflexivity|].
  apply NoDup_cons_iff in Hnd as [Hx Hr]. cbn [map]. rewrite (st_kv_wrote x W).
  change (st_kv sl x) with (st_gk sl x, st_gv sl x). cbn [a_set]. destruct (Z.eqb_spec (st_gk sl x) k) as [E|NE].
  - rewrite <- (Huniq x (or_introl eq_refl) E), Nat.eqb_refl, E in *. f_equal.
    apply map_ext_in. intros y Hy. rewrite (st_kv_wrote y W).
    destruct (Nat.eqb_spec x y) as [<-|_]; [contradiction|reflexivity].
  - destruct (Nat.eqb_spec i x) as [<-|_]; [contradiction|].
    f_equal. apply IH; [exact Hr|intros y Hy; apply Huniq; right; exact Hy].
Qed.

Lemma filter_neq_notin : forall i (l : list nat), ~ In i l -> filter (fun y => negb (y =? i)) l = l.
Proof.
  intros i. induction l as [|x l IH]; intros H; [reflexivity|]. cbn [filter].
  destruct (Nat.eqb_spec x i) as [->|_]; [exfalso; apply H; left; reflexivity|]. cbn [negb]. f_equal. apply IH. intro; apply H; right; assumption.
Qed.

(* clearing the one slot of the order that holds key k, and dropping it from the order, is a_remove *)
Lemma order_remove : forall sl sl' i h k0 v0 k order, st_wrote sl sl' i h k0 v0 -> NoDup order ->
  st_gk sl i = k -> (forall y, In y order -> st_gk sl y = k -> y = i) ->
  map (st_kv sl') (st_remove_nat i order) = a_remove (map (st_kv sl) order) k.
Proof.
  intros sl sl' i h k0 v0 k order W Hnd Eki Huniq. unfold st_remove_nat. induction order as [|x r IH]; [reflexivity|].
  apply NoDup_cons_iff in Hnd as [Hx Hr]. cbn [map filter].
  change (st_kv sl x) with (st_gk sl x, st_gv sl x). cbn [a_remove]. destruct (Z.eqb_spec (st_gk sl x) k) as [E|NE].
  - rewrite <- (Huniq x (or_introl eq_refl) E), Nat.eqb_refl in *. cbn [negb].
    rewrite filter_neq_notin by exact Hx.
    apply map_ext_in. intros y Hy. rewrite (st_kv_wrote y W).
    destruct (Nat.eqb_spec x y) as [<-|_]; [contradiction|reflexivity].
  - destruct (Nat.eqb_spec x i) as [->|Hxi]; [contradiction|]. cbn [negb map].
    rewrite (st_kv_wrote x W), (proj2 (Nat.eqb_neq i x)) by congruence. f_equal.
    apply IH; [exact Hr|intros y Hy; apply Huniq; right; exact Hy].
Qed.

(* reading the pairs by key is the scan of all slots *)
Lemma a_get_pairs : forall st order k, sinv st -> st_order_ok st order ->
  a_get (map (st_kv (slots st)) order) k = st_lookup st k.
Proof.
  intros st order k Hs Hord. rewrite <- (st_assoc_entries st order k Hs Hord). unfold st_entries. clear Hord.
  induction order as [|x r IH]; [reflexivity|]. cbn [map a_get st_assoc]. unfold st_ekey at 1. cbn [st_kv st_entry fst snd].
  rewrite Z.eqb_sym, IH. reflexivity.
Qed.

Section Ord.
Variable hashf : Z -> N.
Variable dcap : N.

Definition ord_inv (r : srun) (x : tab0) : Prop := map (st_kv (slots (r_st r))) (r_order r) = pairs x.

Lemma l0_put_pairs_plain : forall x k v,
  pairs (fst (l0_put VPlain dcap x k v)) =
  match a_get (pairs x) k with Some _ => a_set (pairs x) k v | None => pairs x ++ [(k, v)] end.
Proof.
  intros x0 k v. unfold l0_put.
  set (x := if N.eqb (acap x0) 0 then mkT0 (pairs x0) dcap (aasort x0) else x0).
  assert (Ep : pairs x = pairs x0) by (unfold x; destruct (N.eqb (acap x0) 0); reflexivity).
  rewrite <- Ep. destruct (a_get (pairs x) k) as [old|]; cbn [fst pairs with_pairs]; [reflexivity|].
  destruct (N.eqb (N.of_nat (length (pairs x))) (acap x)); [rewrite l0_ensure_pairs|]; reflexivity.
Qed.

(* one step keeps the correspondence between the storage order and the L0 pairs *)
Theorem st_step_order : forall r f op (w0 : world0), st_rinv hashf r f -> 0 < length w0 ->
  ord_inv r (gett0 w0 0) ->
  ord_inv (fst (st_step hashf r op)) (gett0 (fst (step0 VPlain dcap w0 (op_of_sop op))) 0).
Proof.
  intros r f op w0 Hr Hl Ho. pose proof Hr as (Hs & Hok & Hord & Hlk).
  assert (V : valid_t0 w0 0 = true) by (apply Nat.ltb_lt; exact Hl).
  assert (G : forall x, gett0 (sett0 w0 0 x) 0 = x) by (intros x; unfold gett0, sett0; apply nth_upd_nth_same; exact Hl).
  set (st := r_st r) in *. set (sl := slots st) in *. unfold ord_inv in *.
  assert (Uniq : forall i, i < st_size st -> st_gh sl i <> None ->
                 forall y, In y (r_order r) -> st_gk sl y = st_gk sl i -> y = i).
  { intros i Hi Hu y Hy Hky. apply (proj2 Hord) in Hy. destruct Hy as [Hy Uy].
    exact (st_keys_distinct st y i Hs Hy Hi Uy Hu Hky). }
  (* what the L0 table holds under key k is what GetEntry finds *)
  assert (Ea : forall k, a_get (pairs (gett0 w0 0)) k =
                 match st_get st (hashf k) k with Some i => Some (st_gv sl i) | None => None end).
  { intros k. rewrite <- Ho. transitivity (st_lookup st k);
      [exact (a_get_pairs st _ k Hs Hord)|symmetry; exact (st_get_lookup hashf st k Hs Hok)]. }
  destruct op as [k v|k|k|req]; cbn [op_of_sop step0]; rewrite ?V; unfold st_step; fold st; try specialize (Ea k).
  - (* Put *)
    rewrite (surjective_pairing (l0_put VPlain dcap (gett0 w0 0) k v)). cbn [fst]. rewrite G, l0_put_pairs_plain, Ea.
    destruct (st_get st (hashf k) k) as [i|] eqn:Eg.
    + apply (st_get_correct hashf st k i Hs Hok) in Eg. destruct Eg as (Hi & Hu & <-).
      cbn [fst r_st r_order]. rewrite <- Ho.
      exact (order_set_val _ _ i _ _ v _ (st_set_val_wrote st i v Hi) (proj1 Hord) eq_refl (Uniq i Hi Hu)).
    + assert (Habsent : f k = None) by (rewrite <- Hlk, <- (st_get_lookup hashf st k Hs Hok), Eg; reflexivity).
      destruct (st_room_inv hashf r f Hr) as (Hr1 & Hfree1 & Hp1). cbv zeta in Hr1, Hfree1, Hp1.
      destruct (st_put_new _ (hashf k) k v) as [st2 e] eqn:Eput. cbn [fst]. rewrite <- Ho.
      etransitivity; [exact (proj2 (st_rinv_put_new hashf _ f k v st2 e Hr1 Hfree1 Habsent Eput))|].
      f_equal. exact Hp1.
  - (* Get *) cbn [fst]. exact Ho.
  - (* Remove *)
    rewrite Ea. destruct (st_get st (hashf k) k) as [i|] eqn:Eg; cbn [fst]; [|exact Ho].
    apply (st_get_correct hashf st k i Hs Hok) in Eg. destruct Eg as (Hi & Hu & <-).
    cbn [r_st r_order]. rewrite G. cbn [pairs with_pairs]. rewrite <- Ho.
    destruct (st_remove_spec st i Hs Hi Hu) as (_ & W & _).
    exact (order_remove _ _ i _ _ _ _ _ W (proj1 Hord) eq_refl (Uniq i Hi Hu)).
  - (* EnsureSize *)
    rewrite (surjective_pairing (l0_ensure dcap (gett0 w0 0) (N.of_nat req) false)). cbn [fst]. rewrite G, l0_ensure_pairs.
    rewrite <- Ho. exact (proj2 (proj2 (proj2 (st_grow_inv hashf r f req Hr)))).
Qed.

Lemma step0_sop_length : forall (w0 : world0) o,
  length (fst (step0 VPlain dcap w0 (op_of_sop o))) = length w0.
Proof.
  intros w0 o. destruct o as [k v|k|k|n]; cbn [op_of_sop step0]; destruct (valid_t0 w0 0); try reflexivity.
  - destruct (l0_put VPlain dcap (gett0 w0 0) k v). apply upd_nth_length.
  - destruct (a_get (pairs (gett0 w0 0)) k); [apply upd_nth_length|reflexivity].
  - destruct (l0_ensure dcap (gett0 w0 0) (N.of_nat n) false). apply upd_nth_length.
Qed.

(* all histories: the slots of [r_order] hold exactly the pairs of the plain ordered map, in order *)
Fixpoint st_run_state (r : srun) (ops : list sop) : srun :=
  match ops with [] => r | op :: rest => st_run_state (fst (st_step hashf r op)) rest end.

Theorem st_run_order : forall ops r f (w0 : world0), st_rinv hashf r f -> 0 < length w0 -> ord_inv r (gett0 w0 0) ->
  ord_inv (st_run_state r ops) (gett0 (run0 VPlain dcap w0 (map op_of_sop ops)) 0).
Proof.
  induction ops as [|op rest IH]; intros r f w0 Hr Hl Ho; [exact Ho|].
  cbn [st_run_state map run0].
  destruct (st_step_refines hashf r f op Hr) as [_ Hr'].
  apply (IH _ _ _ Hr'); [rewrite step0_sop_length; exact Hl|apply (st_step_order r f op w0 Hr Hl Ho)].
Qed.

Theorem st_order_is_iteration_order : forall n ops, 0 < n ->
  let r := st_run_state (mkRun (st_create n) []) ops in
  map (st_kv (slots (r_st r))) (r_order r) = pairs (gett0 (run0 VPlain dcap (init_world0 dcap 1) (map op_of_sop ops)) 0).
Proof.
  intros n ops Hn r. apply (st_run_order ops (mkRun (st_create n) []) (fun _ => None) (init_world0 dcap 1)).
  - apply st_rinv_create; exact Hn.
  - cbn. lia.
  - reflexivity.
Qed.

End Ord.

(* the same in terms of the L1 model: the pairs in reallocation order are the table's iteration order *)
Theorem st_order_is_l1_order : forall (hashf : Z -> N) dcap n ni ops, 0 < n ->
  let r := st_run_state hashf (mkRun (st_create n) []) ops in
  map (st_kv (slots (r_st r))) (r_order r) =
  abs (gett (run1 VPlain dcap (init_world dcap 1 ni) (map op_of_sop ops)) 0).
Proof.
  intros hashf dcap n ni ops Hn r. unfold r. rewrite (st_order_is_iteration_order hashf dcap n ops Hn).
  destruct (init_refines VPlain dcap 1 ni (map op_of_sop ops)) as [A _].
  change (init_world0 dcap 1) with (abs_world (init_world dcap 1 ni)). rewrite <- A, gett0_abs. reflexivity.
Qed.
