(* C16 -- EnsureSizeAux (reallocation policy, setNumItems, allowShrink), AddTail, AddHead. *)
From Coq Require Import List Arith ZArith Bool Lia ZifyBool.
From Muscle Require Import Cont.QueueModel Cont.QueueLemmas Cont.QueueInv Cont.QueueOps1.
Import ListNotations.
Local Open Scope nat_scope.

Section Ensure.
Variables (jk : Z) (sq : nat).
Implicit Types (ow : bool) (q : q1).

(* a queue laid out from slot 0 of its array *)
Lemma inv_front ow s items rest il c : c = length items -> 0 < sq -> s <> SNull ->
  (s = SSmall -> length items + length rest = sq) ->
  (ow = true -> forall i, i < length rest -> nth i rest dflt = dflt) ->
  (s <> SSmall -> length il = sq /\ (ow = true -> forall i, i < sq -> nth i il dflt = dflt)) ->
  let q' := mkQ s (items ++ rest) c 0 (c - 1) il in
  inv ow sq q' /\ abs q' = items.
Proof.
  intros -> Hsq Hs Hl Hr Hil q'.
  assert (Q : qsize q' = length items + length rest) by apply app_length.
  assert (G : forall i, i < qsize q' -> getu q' i = nth i (items ++ rest) dflt)
    by (intros i Hi; apply getu_head0; [reflexivity|exact Hi]).
  split.
  - constructor; unfold store_ok, clean, inl_ok; rewrite ?Q; cbn [st cnt head tail inl q'].
    + exact Hsq.
    + lia.
    + lia.
    + intros Hc. rewrite intern_head0; [reflexivity|reflexivity|lia].
    + destruct s; [congruence|auto|exact Logic.I].
    + intros Ho i Hi. rewrite G, nth_app' by lia. replace (i <? length items) with false by lia. apply (Hr Ho). lia.
    + exact Hil.
  - apply abs_ext; [reflexivity|]. intros i Hi. rewrite G, nth_app' by lia.
    replace (i <? length items) with true by lia. reflexivity.
Qed.

Lemma es_realloc_spec ow q size extra : inv ow sq q ->
  let q' := es_realloc ow jk sq q size extra in
  inv ow sq q' /\ abs q' = abs q /\ size <= qsize q'.
Proof.
  intros I q'. subst q'. unfold es_realloc. cbv zeta.
  set (newlen := Nat.max sq (Nat.max (size + extra) (cnt q))).
  pose proof (inv_sq _ _ q I) as Hsq. pose proof (inv_inl _ _ q I) as Hin. unfold inl_ok in Hin.
  pose proof (inv_store _ _ q I) as Hst. unfold store_ok in Hst.
  rewrite abs_length. assert (Hc : cnt q = length (abs q)) by (symmetry; apply abs_length).
  destruct (match st q with SSmall => false | _ => newlen <=? sq end) eqn:Ets.
  - (* into the in-object array, which keeps whatever it held beyond the copied items *)
    assert (Hns : st q <> SSmall) by (destruct (st q); congruence).
    destruct (Hin Hns) as [Hl Hd].
    assert (Hnl : newlen = sq) by (destruct (st q); try congruence; lia).
    destruct (inv_front ow SSmall (abs q) (skipn (cnt q) (inl q)) [] (cnt q) Hc Hsq) as [J1 J2]; try congruence.
    + intros _. autorewrite with nthdb. lia.
    + intros Ho i Hi. rewrite nth_skipn'. autorewrite with nthdb in Hi. apply (Hd Ho). lia.
    + split; [exact J1|]. split; [exact J2|].
      unfold qsize. cbn [arr]. autorewrite with nthdb. lia.
  - (* into a fresh heap array *)
    destruct (inv_front ow SHeap (abs q) (repeat (fresh ow jk) (newlen - cnt q))
                (match st q with SSmall => if ow then repeat dflt sq else arr q | _ => inl q end) (cnt q) Hc Hsq) as [J1 J2];
      try congruence.
    + intros Ho i Hi. rewrite nth_repeat'. unfold fresh. rewrite Ho. dif; reflexivity.
    + intros _. destruct (st q) eqn:Es.
      * apply Hin. congruence.
      * destruct ow.
        -- split; [apply repeat_length|]. intros _ i Hi. rewrite nth_repeat'. dif; reflexivity.
        -- split; [exact Hst|discriminate].
      * apply Hin. congruence.
    + split; [exact J1|]. split; [exact J2|].
      unfold qsize. cbn [arr]. autorewrite with nthdb. lia.
Qed.

Lemma fill_spec ow n : forall a g, inv ow sq g -> a + n <= cnt g ->
  let g' := fold_left (fun g i => setu g i dflt) (seq a n) g in
  inv ow sq g' /\ cnt g' = cnt g /\ qsize g' = qsize g /\
  forall j, j < cnt g -> getu g' j = if (a <=? j) && (j <? a + n) then dflt else getu g j.
Proof.
  induction n as [|n IH]; intros a g I Ha; cbn [seq fold_left].
  - split; [assumption|]. repeat split. intros j Hj. dif; fin.
  - pose proof (inv_cnt _ _ g I). pose proof (inv_hd _ _ g I ltac:(lia)) as Hh.
    destruct (IH (S a) (setu g a dflt)) as (J1&J2&J4&J5).
    + apply inv_setu; [assumption|lia].
    + rewrite cnt_setu. lia.
    + autorewrite with qdb in *. split; [assumption|]. repeat split; try assumption.
      intros j Hj. rewrite J5 by lia. rewrite getu_setu by lia. dif; fin.
Qed.

Lemma es_grow_spec ow q size : inv ow sq q -> cnt q < size -> size <= qsize q ->
  let q' := es_grow ow q size in
  inv ow sq q' /\ abs q' = abs q ++ repeat 0%Z (size - cnt q) /\ qsize q' = qsize q.
Proof.
  intros I Hc Hs q'. subst q'. unfold es_grow. cbv zeta.
  set (grown := mkQ (st q) (arr q) size (head q) (prev_index q (intern q size)) (inl q)).
  assert (Hh : head q < qsize q) by (apply (inv_head _ _ q I); lia).
  assert (Ig : inv ow sq grown).
  { apply (inv_window ow sq q); try reflexivity; try assumption; cbn [cnt head tail grown].
    - intros _. exact Hh.
    - intros _. rewrite prev_intern by lia. reflexivity.
    - intros Ho i Hi. change (getu grown i) with (getu q i). apply (inv_clean _ _ q I Ho). lia. }
  destruct ow.
  - split; [exact Ig|]. split; [|reflexivity].
    apply abs_ext; autorewrite with nthdb; cbn [cnt grown]; [lia|].
    intros i Hi. autorewrite with nthdb in Hi. change (getu grown i) with (getu q i).
    rewrite nth_app', abs_length, nth_repeat'. dif.
    + symmetry. apply nth_abs. lia.
    + apply (inv_clean _ _ q I eq_refl). lia.
    + lia.
  - destruct (fill_spec false (size - cnt q) (cnt q) grown Ig) as (J1&J2&J4&J5).
    + cbn [cnt grown]. lia.
    + split; [exact J1|]. split; [|assumption].
      apply abs_ext; autorewrite with nthdb; [cbn [cnt grown] in J2; lia|].
      intros i Hi. autorewrite with nthdb in Hi. rewrite J5 by (cbn [cnt grown]; lia).
      change (getu grown i) with (getu q i).
      rewrite nth_app', abs_length, nth_repeat'. dif; fin.
      symmetry. apply nth_abs. lia.
Qed.

Lemma l0_resize_shrink (l : list Z) n : n <= length l -> l0_resize l n = firstn n l.
Proof. intros H. unfold l0_resize. replace (n - length l) with 0 by lia. apply app_nil_r. Qed.

Lemma l0_resize_grow (l : list Z) n : length l <= n -> l0_resize l n = l ++ repeat 0%Z (n - length l).
Proof. intros H. unfold l0_resize. rewrite firstn_all2 by lia. reflexivity. Qed.

Lemma ensure_size_spec ow q size setnum extra shrink : inv ow sq q ->
  let q' := ensure_size ow jk sq q size setnum extra shrink in
  inv ow sq q' /\ abs q' = (if setnum then l0_resize (abs q) size else abs q) /\ size <= qsize q'.
Proof.
  intros I q'. subst q'. unfold ensure_size. cbv zeta.
  set (q0 := if setnum && (size <? cnt q) then fst (remove_tail_multi ow q (cnt q - size)) else q).
  assert (A0 : inv ow sq q0 /\
               abs q0 = (if setnum && (size <? cnt q) then firstn size (abs q) else abs q)).
  { subst q0. destruct (setnum && (size <? cnt q)) eqn:E; [|split; [assumption|reflexivity]].
    destruct (remove_tail_multi_spec sq ow q (cnt q - size) I) as (J1&J2&_).
    split; [assumption|]. rewrite J2. f_equal. lia. }
  destruct A0 as [I0 A0].
  set (q1 := if es_need_realloc q0 size extra shrink then es_realloc ow jk sq q0 size extra else q0).
  assert (A1 : inv ow sq q1 /\ abs q1 = abs q0 /\ size <= qsize q1).
  { subst q1. destruct (es_need_realloc q0 size extra shrink) eqn:En.
    - destruct (es_realloc_spec ow q0 size extra I0) as (J1&J2&J4). auto.
    - split; [assumption|]. split; [reflexivity|].
      unfold es_need_realloc in En. destruct (st q0); [discriminate| |]; destruct shrink; lia. }
  destruct A1 as (I1 & A1 & S1).
  assert (C1 : cnt q1 = length (abs q0)) by (rewrite <- A1, abs_length; reflexivity).
  rewrite A0 in C1.
  destruct setnum; cbn [andb] in *.
  - destruct (size <? cnt q) eqn:E.
    + (* the count shrinks *)
      rewrite firstn_length', abs_length in C1.
      replace (cnt q1 <? size) with false by lia.
      split; [assumption|]. split; [|assumption].
      rewrite A1, A0. symmetry. apply l0_resize_shrink. rewrite abs_length. lia.
    + rewrite abs_length in C1. destruct (cnt q1 <? size) eqn:E2.
      * destruct (es_grow_spec ow q1 size I1 ltac:(lia) S1) as (J1&J2&J4).
        split; [assumption|]. split; [|lia].
        rewrite J2, A1, A0, C1. symmetry. rewrite l0_resize_grow by (rewrite abs_length; lia).
        rewrite abs_length. reflexivity.
      * split; [assumption|]. split; [|assumption].
        rewrite A1, A0. symmetry. rewrite l0_resize_shrink by (rewrite abs_length; lia).
        apply firstn_abs_all. lia.
  - split; [assumption|]. split; [|assumption]. rewrite A1, A0. reflexivity.
Qed.

Lemma ensure_size_cnt ow q size extra shrink : inv ow sq q ->
  cnt (ensure_size ow jk sq q size false extra shrink) = cnt q.
Proof.
  intros I. destruct (ensure_size_spec ow q size false extra shrink I) as (_&J&_).
  rewrite <- (abs_length q), <- J, abs_length. reflexivity.
Qed.

(* adding to an empty queue: both AddTail and AddHead reset head and tail to slot 0 *)
Lemma add_first_spec ow q x : inv ow sq q -> cnt q = 0 -> 0 < qsize q ->
  let q' := mkQ (st q) (upd (arr q) 0 x) 1 0 0 (inl q) in
  inv ow sq q' /\ abs q' = [x].
Proof.
  intros I Hc Hq q'. subst q'. unfold qsize in Hq.
  pose proof (inv_store _ _ q I) as S. unfold store_ok, qsize in S.
  replace (upd (arr q) 0 x) with ([x] ++ skipn 1 (arr q))
    by (unfold upd; replace (0 <? length (arr q)) with true by lia; reflexivity).
  apply (inv_front ow (st q) [x] (skipn 1 (arr q)) (inl q) 1 eq_refl (inv_sq _ _ q I)).
  - intros E. rewrite E in S. lia.
  - intros E. rewrite E in S. autorewrite with nthdb. cbn [length]. lia.
  - intros Ho i Hi. rewrite nth_skipn'. autorewrite with nthdb in Hi. apply (all_dflt _ _ q I Hc Ho). unfold qsize. lia.
  - exact (inv_inl _ _ q I).
Qed.

Lemma add_tail_spec ow q x : inv ow sq q ->
  inv ow sq (add_tail ow jk sq q x) /\ abs (add_tail ow jk sq q x) = abs q ++ [x].
Proof.
  intros I. unfold add_tail. cbv zeta.
  pose proof (ensure_size_cnt ow q (cnt q + 1) (cnt q + 1) false I) as C.
  destruct (ensure_size_spec ow q (cnt q + 1) false (cnt q + 1) false I) as (I1 & A1 & S1).
  set (q1 := ensure_size ow jk sq q (cnt q + 1) false (cnt q + 1) false) in *.
  destruct (cnt q1 =? 0) eqn:E.
  - assert (Hz : cnt q1 = 0) by lia. rewrite Hz. cbn [Nat.add].
    destruct (add_first_spec ow q1 x I1 Hz ltac:(lia)) as [J1 J2].
    split; [exact J1|]. rewrite J2, <- A1, (abs_cnt0 q1 Hz). reflexivity.
  - pose proof (inv_hd _ _ q1 I1 ltac:(lia)) as Hh.
    pose proof (inv_tail _ _ q1 I1 ltac:(lia)) as Ht.
    rewrite Ht, next_intern' by lia. replace (cnt q1 - 1 + 1) with (cnt q1) by lia.
    set (g := setu q1 (cnt q1) x).
    assert (G : forall i, i < qsize q1 ->
                getu (mkQ (st q1) (upd (arr q1) (intern q1 (cnt q1)) x) (cnt q1 + 1) (head q1) (intern q1 (cnt q1)) (inl q1)) i
                = if i =? cnt q1 then x else getu q1 i).
    { intros i Hi. transitivity (getu g i); [reflexivity|]. subst g. apply getu_setu; lia. }
    split.
    + apply (inv_window ow sq q1); try reflexivity; cbn [cnt head tail]; [exact I1|apply (qsize_setu q1 (cnt q1) x)|lia| | |].
      * intros _. exact Hh.
      * intros _. replace (cnt q1 + 1 - 1) with (cnt q1) by lia.
        symmetry. apply intern_congr; [reflexivity|]. apply (qsize_setu q1 (cnt q1) x).
      * intros Ho i Hi. rewrite G by lia. dif; [lia|]. apply (inv_clean _ _ q1 I1 Ho). lia.
    + apply abs_ext; autorewrite with nthdb; cbn [cnt length]; [lia|].
      intros i Hi. autorewrite with nthdb in Hi. cbn [length] in Hi.
      rewrite G by lia. rewrite <- A1, nth_app', abs_length. dif.
      * lia.
      * replace (i - cnt q1) with 0 by lia. reflexivity.
      * symmetry. apply nth_abs. lia.
      * lia.
Qed.

Lemma add_head_spec ow q x : inv ow sq q ->
  inv ow sq (add_head ow jk sq q x) /\ abs (add_head ow jk sq q x) = x :: abs q.
Proof.
  intros I. unfold add_head. cbv zeta.
  pose proof (ensure_size_cnt ow q (cnt q + 1) (cnt q + 1) false I) as C.
  destruct (ensure_size_spec ow q (cnt q + 1) false (cnt q + 1) false I) as (I1 & A1 & S1).
  set (q1 := ensure_size ow jk sq q (cnt q + 1) false (cnt q + 1) false) in *.
  destruct (cnt q1 =? 0) eqn:E.
  - assert (Hz : cnt q1 = 0) by lia. rewrite Hz. cbn [Nat.add].
    destruct (add_first_spec ow q1 x I1 Hz ltac:(lia)) as [J1 J2].
    split; [exact J1|]. rewrite J2, <- A1, (abs_cnt0 q1 Hz). reflexivity.
  - pose proof (inv_hd _ _ q1 I1 ltac:(lia)) as Hh.
    pose proof (inv_tail _ _ q1 I1 ltac:(lia)) as Ht.
    pose proof (inv_cnt _ _ q1 I1) as Hc.
    set (h := prev_index q1 (head q1)).
    assert (Hlt : h < qsize q1) by (apply prev_lt; lia).
    set (q' := mkQ (st q1) (upd (arr q1) h x) (cnt q1 + 1) h (tail q1) (inl q1)).
    assert (Q : qsize q' = qsize q1) by (unfold qsize, q'; cbn [arr]; apply upd_length).
    assert (G : forall i, i < qsize q1 -> getu q' i = if i =? 0 then x else getu q1 (i - 1)).
    { intros i Hi. subst q' h. clear - Hh Hi. qunf. rewrite ?upd_length, ?nth_upd. difh; fin. }
    split.
    + apply (inv_window ow sq q1); try reflexivity; try assumption; cbn [cnt head tail q']; [lia| | |].
      * intros _. exact Hlt.
      * intros _. rewrite Ht. subst h. unfold intern at 2. rewrite Q. cbn [head q']. cbv zeta.
        clear - Hh Hc E. qunf. difh; fin.
      * intros Ho i Hi. rewrite G by lia. dif; [lia|]. apply (inv_clean _ _ q1 I1 Ho). lia.
    + apply abs_ext; cbn [cnt length q']; autorewrite with nthdb; [lia|].
      intros i Hi. rewrite G by lia. rewrite nth_cons'. dif; [reflexivity|].
      rewrite <- A1. symmetry. apply nth_abs. lia.
Qed.

End Ensure.
