(* C17 -- facts about the level-0 functions that the level-1 proofs need: index bounds of the searches, lengths, and
   that the early exit of GetDistanceTo keeps the capped distance. *)
From Coq Require Import List NArith ZArith Bool Lia.
From Muscle Require Import Cont.StrL0 Cont.StrLemmas.
Import ListNotations.
Local Open Scope N_scope.

Lemma list_eqb_eq a b : list_eqb a b = true <-> a = b.
Proof.
  revert b. induction a as [|x a IH]; intros [|y b]; cbn [list_eqb]; try (split; [discriminate|discriminate]); [split; reflexivity|].
  rewrite andb_true_iff, N.eqb_eq, IH. split; [intros [-> ->]; reflexivity|intros H; inversion H; auto].
Qed.
Lemma list_eqb_refl a : list_eqb a a = true.
Proof. now apply list_eqb_eq. Qed.

Lemma prefixb_len p l : prefixb p l = true -> lenN p <= lenN l.
Proof.
  revert l. induction p as [|x p IH]; intros l H; [rewrite lenN_nil; lia|].
  destruct l as [|y l]; [discriminate|]. cbn [prefixb] in H. apply andb_true_iff in H. destruct H as [_ H].
  rewrite !lenN_cons. specialize (IH l H). lia.
Qed.
Lemma prefixb_refl l : prefixb l l = true.
Proof. induction l as [|x l IH]; [reflexivity|]. cbn [prefixb]. now rewrite N.eqb_refl. Qed.
Lemma prefixb_app p r : prefixb p (p ++ r) = true.
Proof. induction p as [|x p IH]; [reflexivity|]. cbn [prefixb app]. now rewrite N.eqb_refl. Qed.
Lemma prefixb_spec p l : prefixb p l = true <-> takeN (lenN p) l = p.
Proof.
  revert l. induction p as [|x p IH]; intros l.
  - cbn [prefixb]. rewrite lenN_nil, takeN_0. tauto.
  - destruct l as [|y l]; cbn [prefixb].
    + rewrite takeN_nil. split; discriminate.
    + rewrite lenN_cons, takeN_S, andb_true_iff, N.eqb_eq, IH. split.
      * intros [-> ->]. reflexivity.
      * intros H. inversion H; subst. rewrite H2. auto.
Qed.

Lemma rfind_aux_skip p l i from best : from < i -> rfind_aux p l i from best = best.
Proof.
  revert i best. induction l as [|x l IH]; intros i best H; cbn [rfind_aux].
  - now rewrite (leb_f i from) by lia.
  - rewrite (leb_f i from) by lia. cbn [andb]. apply IH. lia.
Qed.

Lemma rfind_aux_some p l i from best j :
  rfind_aux p l i from best = Some j ->
  best = Some j \/ (i <= j /\ j <= from /\ j - i <= lenN l /\ p (dropN (j - i) l) = true).
Proof.
  revert i best. induction l as [|x l IH]; intros i best H; cbn [rfind_aux] in H.
  - destruct ((i <=? from) && p []) eqn:E; [|now left].
    apply andb_true_iff in E. destruct E as [E1 E2]. apply N.leb_le in E1. inversion H; subst j.
    right. rewrite N.sub_diag, dropN_0. splits; trivial; lia.
  - apply IH in H. destruct H as [H|(H1 & H2 & H3 & H4)].
    + destruct ((i <=? from) && p (x :: l)) eqn:E; [|now left].
      apply andb_true_iff in E. destruct E as [E1 E2]. apply N.leb_le in E1. inversion H; subst j.
      right. rewrite N.sub_diag, dropN_0. splits; trivial; lia.
    + right. rewrite lenN_cons. splits; try lia.
      replace (j - i) with (j - (i + 1) + 1) by lia. now rewrite dropN_S.
Qed.

Lemma rfind_aux_first p x l from best : p (x :: l) = true -> 0 <= from ->
  rfind_aux p (x :: l) from from best = Some from.
Proof.
  intros H _. cbn [rfind_aux]. rewrite N.leb_refl, H. cbn [andb]. apply rfind_aux_skip. lia.
Qed.

(* LastIndexOf(char) is a valid index when it is not -1 *)
Lemma last_index_of_ch_bound l ch z :
  l0_last_index_of_ch l ch 0 = z -> (0 <= z)%Z -> Z.to_N z < lenN l /\ z = Z.of_N (Z.to_N z).
Proof.
  unfold l0_last_index_of_ch. intros H Hz. destruct (0 <? lenN l) eqn:E; [|subst z; lia].
  rewrite dropN_0 in H.
  destruct (rfind_aux _ l 0 NOLIMIT None) as [j|] eqn:R; [|subst z; lia].
  apply rfind_aux_some in R. destruct R as [R|(R1 & R2 & R3 & R4)]; [discriminate|].
  subst z. rewrite N2Z.id. split; [|reflexivity]. rewrite N.sub_0_r in *.
  destruct (dropN j l) as [|y r] eqn:D; [discriminate|].
  apply (f_equal lenN) in D. rewrite lenN_dropN, lenN_cons in D. lia.
Qed.

(* LastIndexOf(string) of a non-empty needle: the match lies inside the string *)
Lemma last_index_of1_bound l ob z :
  ob <> [] -> l0_last_index_of1 l ob = z -> (0 <= z)%Z ->
  Z.to_N z + lenN ob <= lenN l /\ z = Z.of_N (Z.to_N z).
Proof.
  intros Ne. unfold l0_last_index_of1, l0_last_index_of. intros H Hz.
  destruct (lenN ob <=? lenN l) eqn:E; [|subst z; lia].
  destruct ob as [|a ob]; [congruence|].
  destruct (lenN l <=? lenN l - lenN (a :: ob)) eqn:E2; [subst z; lia|].
  destruct (rfind_aux _ l 0 (lenN l - lenN (a :: ob)) None) as [j|] eqn:R; cbn [zidx] in H; [|subst z; lia].
  apply rfind_aux_some in R. destruct R as [R|(R1 & R2 & R3 & R4)]; [discriminate|].
  subst z. rewrite N2Z.id. split; [|reflexivity]. rewrite N.sub_0_r in *.
  destruct (dropN j l) as [|y r] eqn:D; [discriminate|].
  apply prefixb_len in R4. rewrite <- D, lenN_dropN in R4. lia.
Qed.

Lemma last_index_of1_self l : l <> [] -> l0_last_index_of1 l l = 0%Z.
Proof.
  intros Ne. unfold l0_last_index_of1, l0_last_index_of. rewrite N.leb_refl, N.sub_diag.
  destruct l as [|a l]; [congruence|].
  rewrite (leb_f (lenN (a :: l)) 0) by (rewrite lenN_cons; lia).
  rewrite (rfind_aux_first _ a l 0 None); [reflexivity| |lia]. apply prefixb_refl.
Qed.

Lemma find_sub_sound rm l k : find_sub rm l = Some k -> k + lenN rm <= lenN l /\ takeN (lenN rm) (dropN k l) = rm.
Proof.
  revert k. induction l as [|x l IH]; intros k H; cbn [find_sub] in H.
  - destruct (prefixb rm []) eqn:E; [|discriminate]. inversion H; subst k.
    rewrite dropN_0. split; [apply prefixb_len in E; lia|now apply prefixb_spec].
  - destruct (prefixb rm (x :: l)) eqn:E.
    + inversion H; subst k. rewrite dropN_0. split; [apply prefixb_len in E; lia|now apply prefixb_spec].
    + destruct (find_sub rm l) as [j|] eqn:F; [|discriminate]. cbn [option_map] in H. inversion H; subst k.
      destruct (IH j eq_refl) as [B T]. rewrite lenN_cons. split; [lia|].
      rewrite <- N.add_1_r. now rewrite dropN_S.
Qed.
Lemma find_sub_short rm l : lenN l < lenN rm -> find_sub rm l = None.
Proof.
  intros H. destruct (find_sub rm l) as [k|] eqn:E; [|reflexivity].
  apply find_sub_sound in E. lia.
Qed.
Lemma find_sub_self l : find_sub l l = Some 0.
Proof. destruct l; cbn [find_sub]; [reflexivity|]. now rewrite prefixb_refl. Qed.

Lemma split_at_match rm l k : find_sub rm l = Some k -> l = takeN k l ++ rm ++ dropN (k + lenN rm) l.
Proof.
  intros H. destruct (find_sub_sound _ _ _ H) as [B T].
  rewrite <- (takeN_dropN k l) at 1. f_equal.
  rewrite <- (takeN_dropN (lenN rm) (dropN k l)). rewrite T. f_equal.
  rewrite dropN_dropN. f_equal. lia.
Qed.

Lemma replace_sub_fuel_facts f l rm wm max :
  let r := replace_sub_fuel f l rm wm max in
  snd r = N.min max (count_sub_fuel f rm l) /\
  lenN (fst r) + lenN rm * snd r = lenN l + lenN wm * snd r /\
  (snd r = 0 -> fst r = l) /\ (rm = wm -> fst r = l).
Proof.
  revert l max. induction f as [|f IH]; intros l max; cbn [replace_sub_fuel count_sub_fuel].
  - cbn [fst snd]. splits; trivial; lia.
  - destruct (0 <? max) eqn:E0.
    2:{ apply N.ltb_ge in E0. cbn [fst snd]. splits; trivial; lia. }
    apply N.ltb_lt in E0.
    destruct (find_sub rm l) as [k|] eqn:F.
    2:{ cbn [fst snd]. splits; trivial; lia. }
    specialize (IH (dropN (k + lenN rm) l) (max - 1)). cbn zeta in IH.
    destruct (replace_sub_fuel f (dropN (k + lenN rm) l) rm wm (max - 1)) as [t c]. cbn [fst snd] in *.
    destruct IH as (I1 & I2 & I3 & I4).
    destruct (find_sub_sound _ _ _ F) as [B _].
    splits.
    + lia.
    + rewrite !lenN_app, lenN_takeN. rewrite lenN_dropN in I2. nia.
    + lia.
    + intros ->. rewrite (I4 eq_refl). symmetry. now apply split_at_match.
Qed.

Lemma l0_replace_sub_facts l rm wm max from :
  let r := l0_replace_sub l rm wm max from in
  snd r = N.min max (l0_count_sub l rm from) /\
  lenN (fst r) + lenN rm * snd r = lenN l + lenN wm * snd r /\
  (snd r = 0 -> fst r = l) /\ (rm = wm -> fst r = l).
Proof.
  unfold l0_replace_sub, l0_count_sub.
  destruct (max =? 0) eqn:E1; cbn [orb].
  { apply N.eqb_eq in E1. cbn [fst snd]. splits; trivial; lia. }
  destruct (lenN l <=? from) eqn:E2; cbn [orb].
  { apply N.leb_le in E2. cbn [fst snd]. rewrite (ltb_f from (lenN l)) by lia. destruct rm; splits; trivial; lia. }
  apply N.leb_gt in E2. rewrite (ltb_t from (lenN l)) by lia.
  destruct (lenN rm =? 0) eqn:E3.
  { apply N.eqb_eq in E3. rewrite (lenN_0 rm E3). cbn [fst snd]. splits; trivial; lia. }
  apply N.eqb_neq in E3. destruct rm as [|a rm]; [rewrite lenN_nil in E3; congruence|].
  pose proof (replace_sub_fuel_facts (S (length l)) (dropN from l) (a :: rm) wm max) as H. cbn zeta in H.
  destruct (replace_sub_fuel (S (length l)) (dropN from l) (a :: rm) wm max) as [t c]. cbn [fst snd] in *.
  destruct H as (H1 & H2 & H3 & H4). splits.
  - exact H1.
  - rewrite lenN_app, lenN_takeN. rewrite lenN_dropN in H2. lia.
  - intros Hc. rewrite (H3 Hc). apply takeN_dropN.
  - intros Hw. rewrite (H4 Hw). apply takeN_dropN.
Qed.

(* replacing the whole string by something *)
Lemma l0_replace_sub_whole l wm max : l <> [] -> max <> 0 -> l0_replace_sub l l wm max 0 = (wm, 1).
Proof.
  intros Ne Mx. unfold l0_replace_sub.
  rewrite (eqb_f max 0) by trivial.
  assert (Lp : 0 < lenN l) by (destruct l; [congruence|rewrite lenN_cons; lia]).
  rewrite (leb_f (lenN l) 0) by lia.
  rewrite (eqb_f (lenN l) 0) by lia. cbn [orb].
  rewrite dropN_0, takeN_0. cbn [replace_sub_fuel].
  rewrite (ltb_t 0 max) by lia.
  rewrite find_sub_self. rewrite N.add_0_l, (dropN_all (lenN l) l) by lia. rewrite takeN_0.
  assert (R : forall f m, replace_sub_fuel f [] l wm m = ([], 0)).
  { intros f m. destruct f; cbn [replace_sub_fuel]; [reflexivity|]. destruct (0 <? m); [|reflexivity].
    rewrite find_sub_short; [reflexivity|]. rewrite lenN_nil. lia. }
  rewrite R. cbn [app]. now rewrite app_nil_r.
Qed.
Lemma l0_replace_sub_whole_from l wm max from : 0 < from -> l0_replace_sub l l wm max from = (l, 0).
Proof.
  intros Hf. unfold l0_replace_sub.
  destruct ((max =? 0) || (lenN l <=? from) || (lenN l =? 0)) eqn:E; [reflexivity|].
  apply orb_false_iff in E. destruct E as [E _]. apply orb_false_iff in E. destruct E as [E1 E2].
  apply N.leb_gt in E2.
  cbn [replace_sub_fuel]. destruct (0 <? max); [|now rewrite takeN_dropN].
  rewrite find_sub_short by (rewrite lenN_dropN; lia). now rewrite takeN_dropN.
Qed.

Lemma count_sub_fuel_le f rm l : count_sub_fuel f rm l * lenN rm <= lenN l.
Proof.
  revert l. induction f as [|f IH]; intros l; cbn [count_sub_fuel]; [lia|].
  destruct (find_sub rm l) as [k|] eqn:F; [|lia].
  destruct (find_sub_sound _ _ _ F) as [B _]. specialize (IH (dropN (k + lenN rm) l)).
  rewrite lenN_dropN in IH. nia.
Qed.
Lemma l0_count_sub_le l rm from : l0_count_sub l rm from * lenN rm <= lenN l.
Proof.
  unfold l0_count_sub. destruct rm as [|a rm]; [lia|]. destruct (from <? lenN l); [|lia].
  pose proof (count_sub_fuel_le (S (length l)) (a :: rm) (dropN from l)) as H. rewrite lenN_dropN in H. lia.
Qed.

Lemma l0_trunc_chars_len l n : lenN (l0_trunc_chars l n) <= lenN l.
Proof. unfold l0_trunc_chars. rewrite lenN_takeN. lia. Qed.

Lemma strip_suffix_fuel_len f l suf max : lenN (strip_suffix_fuel f l suf max) <= lenN l.
Proof.
  revert l max. induction f as [|f IH]; intros l max; cbn [strip_suffix_fuel]; [lia|].
  destruct ((0 <? max) && ends_with l suf); [|lia].
  specialize (IH (l0_trunc_chars l (lenN suf)) (max - 1)). pose proof (l0_trunc_chars_len l (lenN suf)). lia.
Qed.

(* the early exit of the repaired code (leave the row loop once the minimum of a row has
   reached maxResult) does not change the capped Levenshtein distance, because the minimum of a row never
   decreases from one row to the next. *)
Definition all_ge (m : N) (l : list N) : Prop := Forall (fun e => m <= e) l.

Lemma lev_row_ge m up a c left diag :
  all_ge m up -> m <= left -> m <= diag -> all_ge m (lev_row up a c left diag).
Proof.
  revert a left diag. induction up as [|u up IH]; intros a left diag Hu Hl Hd; destruct a as [|ay a]; cbn [lev_row]; try constructor.
  all: inversion Hu; subst.
  - destruct (ay =? c); lia.
  - apply IH; trivial. destruct (ay =? c); lia.
Qed.

(* the next row is bounded below by what bounds this row (whose first entry is x) *)
Lemma next_row_ge m a c x rest :
  all_ge m (x :: rest) -> all_ge m ((x + 1) :: lev_row rest a c (x + 1) x).
Proof.
  intros H. inversion H; subst. constructor; [lia|]. apply lev_row_ge; trivial. lia.
Qed.

Lemma lev_rows_ge m a b : forall x rest, all_ge m (x :: rest) ->
  exists rest', lev_rows a b x (x :: rest) = (x + lenN b) :: rest' /\ all_ge m ((x + lenN b) :: rest').
Proof.
  induction b as [|c t IH]; intros x rest H; cbn [lev_rows tl hd].
  - exists rest. rewrite lenN_nil, N.add_0_r. split; trivial.
  - destruct (IH (x + 1) (lev_row rest a c (x + 1) x) (next_row_ge m a c x rest H)) as (rest' & E & G).
    exists rest'. rewrite lenN_cons. replace (x + (lenN t + 1)) with (x + 1 + lenN t) by lia. split; trivial.
Qed.

Lemma last_ge m l : l <> [] -> all_ge m l -> m <= last l 0.
Proof.
  intros Ne H. induction H as [|e l He Hl IH]; [congruence|].
  destruct l as [|e2 l]; [exact He|]. cbn [last]. apply IH. discriminate.
Qed.

Lemma fold_min_le b l : fold_right N.min b l <= b /\ all_ge (fold_right N.min b l) l.
Proof.
  induction l as [|e l [IH1 IH2]]; cbn [fold_right]; [split; [lia|constructor]|].
  set (F := fold_right N.min b l) in *. clearbody F.
  split; [lia|]. constructor; [lia|]. eapply Forall_impl; [|exact IH2]. cbn beta. intros x Hx. lia.
Qed.

Lemma lev_rows_exit_eq a b max : forall x rest,
  N.min (last (lev_rows_exit true a b x (x :: rest) max) 0) max = N.min (last (lev_rows a b x (x :: rest)) 0) max.
Proof.
  induction b as [|c t IH]; intros x rest; cbn [lev_rows_exit lev_rows tl hd]; [reflexivity|].
  set (row' := (x + 1) :: lev_row rest a c (x + 1) x).
  destruct (max <=? fold_right N.min (x + 1) row') eqn:E; [|apply IH].
  apply N.leb_le in E.
  destruct (fold_min_le (x + 1) row') as [_ G].
  assert (Gm : all_ge max row') by (eapply Forall_impl; [|exact G]; cbn beta; intros e0 He0; lia).
  assert (L1 : max <= last row' 0) by (apply last_ge; [discriminate|exact Gm]).
  destruct (lev_rows_ge max a t (x + 1) (lev_row rest a c (x + 1) x) Gm) as (rest' & Er & Gr).
  fold row' in Er. rewrite Er.
  assert (L2 : max <= last ((x + 1 + lenN t) :: rest') 0) by (apply last_ge; [discriminate|exact Gr]).
  lia.
Qed.

Theorem distance_code_fixed a b max : distance_code true a b max = l0_distance a b max.
Proof.
  unfold distance_code, l0_distance, lev.
  destruct (lenN b <? lenN a); cbn [iotaN]; apply lev_rows_exit_eq.
Qed.

Lemma lenN_replace_ch_aux l a b max : lenN (fst (replace_ch_aux l a b max)) = lenN l.
Proof.
  revert max. induction l as [|x t IH]; intros max; cbn [replace_ch_aux]; [reflexivity|].
  destruct ((0 <? max) && (x =? a)).
  - specialize (IH (max - 1)). destruct (replace_ch_aux t a b (max - 1)). cbn [fst] in *. rewrite !lenN_cons. lia.
  - specialize (IH max). destruct (replace_ch_aux t a b max). cbn [fst] in *. rewrite !lenN_cons. lia.
Qed.
Lemma lenN_replace_ch l a b max from : lenN (fst (l0_replace_ch l a b max from)) = lenN l.
Proof.
  unfold l0_replace_ch. destruct (negb (a =? b) && (from <? lenN l)) eqn:E; [|reflexivity].
  apply andb_true_iff in E. destruct E as [_ E]. apply N.ltb_lt in E.
  pose proof (lenN_replace_ch_aux (dropN from l) a b max) as H.
  destruct (replace_ch_aux (dropN from l) a b max). cbn [fst] in *.
  rewrite lenN_app, H, lenN_takeN, lenN_dropN. lia.
Qed.
Lemma l0_minus_self l : l0_minus l l = [].
Proof.
  unfold l0_minus. destruct l as [|a l]; [reflexivity|].
  rewrite last_index_of1_self by discriminate. cbn [Z.to_N]. rewrite takeN_0, N.add_0_l. cbn [app].
  apply dropN_all. lia.
Qed.
Lemma l0_insert_front l x : l0_insert l 0 x = x ++ l.
Proof. unfold l0_insert. rewrite N.min_0_l, takeN_0, dropN_0. reflexivity. Qed.
Lemma l0_insert_back l idx x : lenN l <= idx -> l0_insert l idx x = l ++ x.
Proof. intros H. unfold l0_insert. rewrite N.min_r by lia. rewrite takeN_all, dropN_all by lia. now rewrite app_nil_r. Qed.
Lemma lenN_mixed_aux b l : lenN (mixed_aux b l) = lenN l.
Proof. revert b. induction l as [|x l IH]; intros b; cbn [mixed_aux]; [reflexivity|]. now rewrite !lenN_cons, IH. Qed.
Lemma drop_while_suffix p l : exists pre, l = pre ++ drop_while p l.
Proof.
  induction l as [|x l [pre IH]]; [exists []; reflexivity|]. cbn [drop_while].
  destruct (p x); [exists (x :: pre); cbn [app]; now rewrite <- IH|exists []; reflexivity].
Qed.
Lemma strip_ch_prefix_suffix l ch max : exists pre, l = pre ++ strip_ch_prefix l ch max.
Proof.
  revert max. induction l as [|x l IH]; intros max; [exists []; reflexivity|]. cbn [strip_ch_prefix].
  destruct ((0 <? max) && (x =? ch)); [|exists []; reflexivity].
  destruct (IH (max - 1)) as [pre H]. exists (x :: pre). cbn [app]. now rewrite <- H.
Qed.
Lemma strip_ch_prefix_nc_suffix l ch max : exists pre, l = pre ++ strip_ch_prefix_nc l ch max.
Proof.
  revert max. induction l as [|x l IH]; intros max; [exists []; reflexivity|]. cbn [strip_ch_prefix_nc].
  destruct ((0 <? max) && ((x =? to_upper ch) || (x =? to_lower ch))); [|exists []; reflexivity].
  destruct (IH (max - 1)) as [pre H]. exists (x :: pre). cbn [app]. now rewrite <- H.
Qed.
Lemma trimmed_slice l :
  let start := lenN l - lenN (drop_while is_space4 l) in
  l0_sub l start (start + lenN (l0_trimmed l)) = l0_trimmed l.
Proof.
  intros start. unfold l0_trimmed in *.
  destruct (drop_while_suffix is_space4 l) as [pre Hl]. set (d := drop_while is_space4 l) in *.
  destruct (drop_while_suffix is_space4 (rev d)) as [pre2 Hd]. set (t := rev (drop_while is_space4 (rev d))) in *.
  assert (Ed : d = t ++ rev pre2).
  { rewrite <- (rev_involutive d). rewrite Hd. rewrite rev_app_distr. reflexivity. }
  assert (Es : start = lenN pre) by (unfold start; rewrite Hl at 1; rewrite lenN_app; lia).
  unfold l0_sub. rewrite Es.
  assert (Ll : lenN l = lenN pre + lenN t + lenN pre2).
  { rewrite Hl, lenN_app, Ed, lenN_app, lenN_rev. lia. }
  rewrite N.min_l by lia.
  destruct (lenN pre <? lenN pre + lenN t) eqn:E.
  - replace (lenN pre + lenN t - lenN pre) with (lenN t) by lia.
    rewrite Hl, dropN_app_exact, Ed. apply takeN_app_exact.
  - apply N.ltb_ge in E. symmetry. apply lenN_0. lia.
Qed.
Lemma is_nil_len l : is_nil l = (lenN l =? 0).
Proof. destruct l; [reflexivity|]. rewrite lenN_cons. symmetry. apply N.eqb_neq. lia. Qed.
Lemma multi_fuel_zero f pairs l max : snd (multi_fuel f pairs l max) = 0 -> fst (multi_fuel f pairs l max) = l.
Proof.
  revert l max. induction f as [|f IH]; intros l max H; cbn [multi_fuel] in *; [reflexivity|].
  destruct l as [|c t]; [reflexivity|].
  destruct (if 0 <? max then key_at pairs (c :: t) else None) as [[k v]|].
  - destruct (multi_fuel f pairs (dropN (lenN k) (c :: t)) (dec_max max)) as [r n]. cbn [snd] in H. lia.
  - specialize (IH t max). destruct (multi_fuel f pairs t max) as [r n]. cbn [fst snd] in *. now rewrite IH.
Qed.
Lemma key_at_nonempty pairs l k v : key_at pairs l = Some (k, v) -> 0 < lenN k /\ In (k, v) pairs.
Proof.
  unfold key_at. intros H. apply find_some in H. destruct H as [Hin H]. cbn [fst] in H.
  apply andb_true_iff in H. destruct H as [H _]. split; trivial.
  destruct k; [discriminate H|rewrite lenN_cons; lia].
Qed.
