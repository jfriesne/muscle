(* C09 -- the literal Clear loop (HtClearModel.v) has exactly the effect modelled by clear_tab: the same
   iterator table, the same head/tail/count/capacity/fresh counter/auto-sort flag/iterator list, and
   no node left (the node maps are compared extensionally: every lookup gives None). *)
From Coq Require Import List Arith ZArith NArith PArith Bool Lia FMapPositive.
From Muscle Require Import Cont.HtModel Cont.HtLemmas Cont.HtRepr Cont.HtWalk Cont.HtIters Cont.HtTable Cont.HtClearModel.
Import ListNotations.

Lemma tinv_with_ilist : forall h l il, tinv h l -> tinv (with_ilist h il) l.
Proof.
  intros h l il T. apply (tinv_same_nodes h _ l T); reflexivity.
Qed.

Lemma clear_loop_spec : forall l h I, tinv h l -> ilist h = [] ->
  tinv (fst (clear_loop h I (length l))) [] /\ snd (clear_loop h I (length l)) = I /\
  cap (fst (clear_loop h I (length l))) = cap h /\ fresh (fst (clear_loop h I (length l))) = fresh h /\
  asort (fst (clear_loop h I (length l))) = asort h /\ ilist (fst (clear_loop h I (length l))) = [].
Proof.
  induction l as [|e l IH]; intros h I T Hil.
  - cbn [length clear_loop fst snd]. split; [exact T|split; [reflexivity|split; [reflexivity|split; [reflexivity|split; [reflexivity|exact Hil]]]]].
  - cbn [length clear_loop]. rewrite (lk_hd _ _ (ti_linked _ _ T)). cbn [head_opt].
    unfold remove_entry, remove_iter_entry.
    assert (Ep : patch_all h e I = I) by (unfold patch_all; rewrite Hil; reflexivity). rewrite Ep.
    destruct (tinv_remove_entry h [] l e T) as (T' & _ & _ & _ & _ & Ecap & Ef & Ea & Ei). cbn [app] in T'.
    set (h' := with_cnt (with_nodes (unlink h e) (PositiveMap.remove e (nodes (unlink h e)))) (cnt (unlink h e) - 1)) in *.
    destruct (IH h' I T' (eq_trans Ei Hil)) as (A & B & C & D & E & F).
    split; [exact A|split; [exact B|split; [congruence|split; [congruence|split; [congruence|exact F]]]]].
Qed.

Theorem clear_literal_spec : forall dcap h I release l, tinv h l ->
  let a := clear_literal dcap h I release in
  let b := clear_tab dcap h I release in
  snd a = snd b /\ hd (fst a) = hd (fst b) /\ tl (fst a) = tl (fst b) /\ cnt (fst a) = cnt (fst b) /\
  cap (fst a) = cap (fst b) /\ fresh (fst a) = fresh (fst b) /\ asort (fst a) = asort (fst b) /\
  ilist (fst a) = ilist (fst b) /\ (forall y, getn (fst a) y = getn (fst b) y).
Proof.
  intros dcap h I release l T a b. unfold a, b, clear_literal, clear_tab.
  pose proof (tinv_with_ilist h l [] T) as T0.
  destruct (clear_loop_spec l (with_ilist h []) (detach_all h I) T0 eq_refl) as (A & B & C & D & E & F).
  rewrite (ti_cnt _ _ T).
  destruct (clear_loop (with_ilist h []) (detach_all h I) (length l)) as [h2 I2]. cbn [fst snd] in *.
  assert (N : forall y, getn h2 y = None).
  { intros y. destruct (getn h2 y) eqn:G; [|reflexivity]. exfalso. apply (ti_dom _ _ A y). unfold live. rewrite G. discriminate. }
  pose proof (lk_hd _ _ (ti_linked _ _ A)) as Hh. pose proof (lk_tl _ _ (ti_linked _ _ A)) as Ht. pose proof (ti_cnt _ _ A) as Hc.
  cbn in Hh, Ht, Hc.
  assert (G0 : forall y c f a il, getn (mkHt (PositiveMap.empty node) None None 0 c f a il) y = None).
  { intros. unfold getn. cbn [nodes]. apply PositiveMap.gempty. }
  destruct release; cbn [fst snd hd tl cnt cap fresh asort ilist with_cap];
    (split; [exact B|split; [exact Hh|split; [exact Ht|split; [exact Hc|split; [try reflexivity; exact C|split; [exact D|split; [exact E|split; [exact F|]]]]]]]]);
    intros y; rewrite G0; [unfold getn; cbn [nodes with_cap]; apply (N y)|apply N].
Qed.
