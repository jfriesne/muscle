(* C09 -- preservation of the table-local invariant by sorting (relink), PutAux (all three classes),
   MoveIterationEntryToCorrectPosition, CopyFrom, multi-removal; what a value update, a new entry and the
   CopyFromAux loop do to [abs]. *)
From Coq Require Import List Arith ZArith NArith PArith Bool Lia FMapPositive Permutation.
From Muscle Require Import Cont.HtModel Cont.HtStep Cont.HtLemmas Cont.HtRepr Cont.HtWalk Cont.HtIters Cont.HtTable Cont.HtMoves
                           Cont.HtOrdered Cont.HtAbs Cont.HtIdeal.
Import ListNotations.

(* ------------------------------------------------------------------ relink *)

Lemma relink_from_spec : forall l h p, NoDup l -> (forall y, In y l -> live h y) ->
  let h' := relink_from h p l in
  (forall y, In y l -> get_prev h' y = prev_from p l y /\ get_next h' y = next_in l y) /\
  (forall y, ~ In y l -> get_prev h' y = get_prev h y /\ get_next h' y = get_next h y) /\
  tl h' = (match last_of l with Some z => Some z | None => p end) /\ hd h' = hd h /\
  same_data h h' /\ meta_eq h h'.
Proof.
  induction l as [|e r IH]; intros h p Hnd Hl.
  - cbn. repeat split; auto; intros; try tauto.
  - inversion Hnd as [|? ? Her Hnd']; subst.
    set (h1 := set_next (set_prev h e p) e (head_opt r)).
    assert (Le : live h e) by (apply Hl; left; reflexivity).
    assert (S1 : same_data h h1) by (eapply same_data_trans; [apply same_data_set_prev|apply same_data_set_next]).
    assert (M1 : meta_eq h h1) by (eapply meta_eq_trans; [apply meta_set_prev|apply meta_set_next]).
    assert (Hl1 : forall y, In y r -> live h1 y) by (intros y Hy; apply S1; apply Hl; right; exact Hy).
    specialize (IH h1 (Some e) Hnd' Hl1). cbn zeta in IH. destruct IH as (A & B & C & D & S2 & M2).
    cbn [relink_from]. fold h1.
    assert (P1 : forall y, get_prev h1 y = if Pos.eqb y e then p else get_prev h y).
    { intros y. unfold h1. rewrite get_prev_set_next. apply get_prev_set_prev. exact Le. }
    assert (N1 : forall y, get_next h1 y = if Pos.eqb y e then head_opt r else get_next h y).
    { intros y. unfold h1. rewrite get_next_set_next by (apply live_set_prev; exact Le).
      destruct (Pos.eqb y e); [reflexivity|apply get_next_set_prev]. }
    split; [|split; [|split; [|split; [|split]]]].
    + intros y [->|Hy].
      * destruct (B y Her) as [B1 B2]. rewrite B1, B2, P1, N1. cbn [prev_from next_in]. rewrite Pos.eqb_refl. auto.
      * destruct (A y Hy) as [A1 A2]. rewrite A1, A2. cbn [prev_from next_in].
        assert (Pos.eqb e y = false) as -> by (apply Pos.eqb_neq; intro; subst; contradiction). auto.
    + intros y Hy. destruct (B y) as [B1 B2]; [intro; apply Hy; right; assumption|].
      rewrite B1, B2, P1, N1. assert (Pos.eqb y e = false) as -> by (apply Pos.eqb_neq; intro; subst; apply Hy; left; reflexivity). auto.
    + rewrite C. destruct r as [|z r']; [reflexivity|]. rewrite last_of_cons_cons.
      destruct (last_of (z :: r')) eqn:E; [reflexivity|apply last_of_none in E; discriminate].
    + rewrite D. unfold h1. rewrite hd_set_next, hd_set_prev. reflexivity.
    + eapply same_data_trans; eassumption.
    + eapply meta_eq_trans; eassumption.
Qed.

Lemma relink_spec : forall h l l', tinv h l -> Permutation l l' ->
  tinv (relink h l') l' /\ only_links h (relink h l').
Proof.
  intros h l l' T P.
  assert (Hnd : NoDup l') by (eapply Permutation_NoDup; [exact P|apply (tinv_nodup _ _ T)]).
  assert (Hl : forall y, In y l' -> live (with_hd h (head_opt l')) y).
  { intros y Hy. apply (tinv_live _ _ T). eapply Permutation_in; [apply Permutation_sym; exact P|exact Hy]. }
  destruct (relink_from_spec l' (with_hd h (head_opt l')) None Hnd Hl) as (A & B & C & D & S & M).
  unfold relink. split; [|split; assumption]. eapply tinv_same_data_perm; try eassumption.
  constructor; [rewrite D; reflexivity|rewrite C; destruct (last_of l'); reflexivity|exact Hnd| | |].
  - intros y Hy. apply S. apply Hl. exact Hy.
  - intros y Hy. apply (A y Hy).
  - intros y Hy. apply (A y Hy).
Qed.

Lemma ins_id_perm : forall h cmp x l, Permutation (x :: l) (ins_id h cmp x l).
Proof.
  intros h cmp x l. induction l as [|y r IH]; [apply Permutation_refl|]. cbn [ins_id].
  destruct (kv_of h x), (kv_of h y); try (eapply Permutation_trans; [apply perm_swap|apply perm_skip; exact IH]).
  destruct (cmp p p0); try (eapply Permutation_trans; [apply perm_swap|apply perm_skip; exact IH]).
  apply Permutation_refl.
Qed.

Lemma sort_ids_perm : forall h cmp l, Permutation l (sort_ids h cmp l).
Proof.
  intros h cmp l. unfold sort_ids.
  assert (G : forall acc, Permutation (acc ++ l) (fold_left (fun acc x => ins_id h cmp x acc) l acc)).
  { induction l as [|x l IH]; intros acc; [rewrite app_nil_r; apply Permutation_refl|].
    cbn [fold_left]. eapply Permutation_trans; [|apply IH].
    eapply Permutation_trans; [apply Permutation_sym, Permutation_middle|].
    apply (Permutation_app_tail l (ins_id_perm h cmp x acc)). }
  apply (G []).
Qed.

Lemma sort_by_spec : forall h l cmp, tinv h l ->
  tinv (sort_by h cmp) (sort_ids h cmp l) /\ only_links h (sort_by h cmp).
Proof.
  intros h l cmp T. unfold sort_by. rewrite (tinv_ids h l T). apply (relink_spec h l); [exact T|apply sort_ids_perm].
Qed.

Section T.
Variable t : nat.

Lemma sort_by_TL : forall h I cmp, TL t h I -> TL t (sort_by h cmp) I.
Proof.
  intros h I cmp HTL. destruct (tl_tinv _ _ _ HTL) as (l & T).
  destruct (sort_by_spec h l cmp T) as (T' & [_ Lv] & (_ & _ & _ & _ & Mi)).
  apply (TL_same_I t h); [exact HTL|eexists; exact T'|exact Mi|intros c Hc; apply Lv; exact Hc].
Qed.

Lemma sort_aux_TL : forall var h I, TL t h I -> TL t (sort_aux var h) I.
Proof. intros var h I H. unfold sort_aux. destruct var; [exact H|apply sort_by_TL; exact H|apply sort_by_TL; exact H]. Qed.

End T.

(* ------------------------------------------------------------------ pointer writes never create or destroy nodes *)

Lemma insert_same_data : forall h e b, same_data h (insert_iter_entry h e b) /\ meta_eq h (insert_iter_entry h e b).
Proof. exact insert_only_links. Qed.

Lemma relink_step_same_data : forall h e b, same_data h (insert_iter_entry (unlink h e) e b).
Proof.
  intros. apply (only_links_trans h (unlink h e)); [apply unlink_only_links|apply insert_only_links].
Qed.

Lemma move_front_same : forall h I e, same_data h (fst (move_front_aux h I e)).
Proof. intros. unfold move_front_aux. destruct (get_prev h e); [apply relink_step_same_data|apply same_data_refl]. Qed.
Lemma move_back_same : forall h I e, same_data h (fst (move_back_aux h I e)).
Proof. intros. unfold move_back_aux. destruct (get_next h e); [apply relink_step_same_data|apply same_data_refl]. Qed.
Lemma move_before_same : forall h I e f, same_data h (fst (move_before_aux h I e f)).
Proof. intros. unfold move_before_aux. destruct (opt_pos_eqb _ _); [apply same_data_refl|apply relink_step_same_data]. Qed.
Lemma move_behind_same : forall h I e d, same_data h (fst (move_behind_aux h I e d)).
Proof. intros. unfold move_behind_aux. destruct (opt_pos_eqb _ _); [apply same_data_refl|apply relink_step_same_data]. Qed.
Lemma move_pos_same : forall h I e idx, same_data h (fst (move_pos_aux h I e idx)).
Proof.
  intros. unfold move_pos_aux. destruct (idx =? 0); [apply move_front_same|].
  destruct (cnt h <=? idx); [apply move_back_same|].
  destruct (opt_pos_eqb _ _); [apply same_data_refl|]. cbn [remove_iter_entry fst].
  destruct (idx <? cnt h / 2); apply relink_step_same_data.
Qed.

Section V.
Variable var : variant.
Variable dcap : N.
Variable t : nat.

(* ------------------------------------------------------------------ MoveIterationEntryToCorrectPosition *)

(* the second half of MoveIterationEntryToCorrectPosition (it stands twice in the code): the entry may have
   to go towards the back *)
Definition repos_fwd (h : ht) (I : itab) (e : positive) (kv : Z * Z) : ht * itab :=
  match get_next h e with
  | Some b2 =>
    if is_gt (cmp_ent var h kv b2) then
      match tl h with
      | Some tx => if is_gt (cmp_ent var h kv tx) then move_back_aux h I e
                   else move_behind_aux h I e (creep_fwd var h kv b2 (cnt h))
      | None => (h, I)
      end
    else (h, I)
  | None => (h, I)
  end.

Lemma reposition_ordered_eq : forall h I e, reposition_ordered var h I e =
  match kv_of h e with
  | None => (h, I)
  | Some kv =>
    match get_prev h e with
    | Some b =>
      if is_lt (cmp_ent var h kv b) then
        match hd h with
        | Some hx => if is_lt (cmp_ent var h kv hx) then move_front_aux h I e
                     else move_before_aux h I e (creep_back var h kv b (cnt h))
        | None => (h, I)
        end
      else repos_fwd h I e kv
    | None => repos_fwd h I e kv
    end
  end.
Proof. reflexivity. Qed.

Lemma repos_fwd_ok : forall h I e kv l, TL t h I -> tinv h l -> In e l ->
  okstep t I (repos_fwd h I e kv) /\ same_data h (fst (repos_fwd h I e kv)).
Proof.
  intros h I e kv l HTL T He.
  assert (Id : okstep t I (h, I) /\ same_data h (fst (h, I))) by (split; [apply okstep_id; exact HTL|apply same_data_refl]).
  unfold repos_fwd. destruct (get_next h e) as [b2|] eqn:Hb2; [|exact Id].
  destruct (is_gt (cmp_ent var h kv b2)); [|exact Id]. destruct (tl h) as [tx|]; [|exact Id].
  destruct (is_gt (cmp_ent var h kv tx)); [split; [eapply move_back_ok; eassumption|apply move_back_same]|].
  destruct (in_split _ _ He) as (l1 & l2 & El).
  pose proof (tinv_nodup _ _ T) as Hnd. rewrite El in Hnd. destruct (nodup_split_notin _ _ _ Hnd) as [_ Hn2].
  rewrite (next_of_suffix h l l1 e l2 (ti_linked _ _ T) El) in Hb2. destruct l2 as [|x l2']; [discriminate|]. injection Hb2 as ->.
  assert (Hc : In (creep_fwd var h kv b2 (cnt h)) (b2 :: l2')).
  { apply (creep_fwd_in var h l kv (cnt h) (l1 ++ [e]) b2 l2' (ti_linked _ _ T)); [rewrite <- app_assoc; exact El|].
    rewrite (ti_cnt _ _ T), El, !app_length. cbn [length]. lia. }
  split; [|apply move_behind_same]. eapply move_behind_ok; try eassumption.
  - rewrite El. apply in_or_app. right. right. exact Hc.
  - intro Hx. rewrite Hx in Hc. contradiction.
Qed.

Lemma reposition_ordered_ok : forall h I e l, TL t h I -> tinv h l -> In e l ->
  okstep t I (reposition_ordered var h I e) /\ same_data h (fst (reposition_ordered var h I e)).
Proof.
  intros h I e l HTL T He.
  assert (Id : okstep t I (h, I) /\ same_data h (fst (h, I))) by (split; [apply okstep_id; exact HTL|apply same_data_refl]).
  rewrite reposition_ordered_eq. destruct (kv_of h e) as [kv|]; [|exact Id].
  destruct (get_prev h e) as [b|] eqn:Ep; [|eapply repos_fwd_ok; eassumption].
  destruct (is_lt (cmp_ent var h kv b)); [|eapply repos_fwd_ok; eassumption].
  destruct (hd h) as [hx|]; [|exact Id].
  destruct (is_lt (cmp_ent var h kv hx)); [split; [eapply move_front_ok; eassumption|apply move_front_same]|].
  destruct (in_split _ _ He) as (l1 & l2 & El).
  pose proof (tinv_nodup _ _ T) as Hnd. rewrite El in Hnd. destruct (nodup_split_notin _ _ _ Hnd) as [Hn1 _].
  rewrite (prev_of_prefix h l l1 e l2 (ti_linked _ _ T) El) in Ep. destruct (last_of_split _ _ _ Ep) as (l0 & ->).
  assert (Hc : In (creep_back var h kv b (cnt h)) (l0 ++ [b])).
  { apply (creep_back_in var h l kv (cnt h) l0 b (e :: l2) (ti_linked _ _ T)); [rewrite <- app_assoc in El; exact El|].
    rewrite (ti_cnt _ _ T), El, !app_length. lia. }
  split; [|apply move_before_same]. eapply move_before_ok; try eassumption.
  - rewrite El. apply in_or_app. left. exact Hc.
  - intro Hx. rewrite Hx in Hc. contradiction.
Qed.

Lemma reposition_ok : forall h I e l, TL t h I -> tinv h l -> In e l ->
  okstep t I (reposition_aux var h I e) /\ same_data h (fst (reposition_aux var h I e)).
Proof.
  intros h I e l HTL T He. pose proof (reposition_ordered_ok h I e l HTL T He) as R.
  unfold reposition_aux. destruct var; [split; [apply okstep_id; exact HTL|apply same_data_refl]|exact R|exact R].
Qed.

(* ------------------------------------------------------------------ PutAux *)

Lemma alloc_linked : forall h l k v, tinv h l ->
  linked (fst (alloc_node h k v)) l /\ snd (alloc_node h k v) = fresh h.
Proof.
  intros h l k v T. unfold alloc_node. cbn [fst snd]. split; [|reflexivity].
  apply (linked_ext h _ l (ti_linked _ _ T)); try reflexivity.
  intros y Hy. unfold getn. cbn. apply PositiveMap.gso. intro; subst.
  pose proof (ti_fresh _ _ T (fresh h) (tinv_live _ _ T _ Hy)) as H. apply (Pos.lt_irrefl _ H).
Qed.

Lemma put_new_spec : forall h l k v, tinv h l -> find_id h k l = None ->
  let h1 := fst (alloc_node h k v) in
  let e := snd (alloc_node h k v) in
  let sp := ins_split var (asort h) h1 (k, v) l in
  let h2 := insert_entry_aux var h1 e in
  let h' := with_cnt h2 (cnt h2 + 1) in
  e = fresh h /\ ~ In e l /\ tinv h' (fst sp ++ e :: snd sp) /\ kvf h' e = (k, v) /\
  (forall y, y <> e -> kvf h' y = kvf h y) /\ (forall y, live h' y <-> (live h y \/ y = e)) /\
  cap h' = cap h /\ asort h' = asort h /\ ilist h' = ilist h.
Proof.
  intros h l k v T Hf h1 e sp h2 h'.
  destruct (alloc_linked h l k v T) as [L1 _]. fold h1 in L1.
  assert (K1 : kv_of h1 e = Some (k, v)).
  { unfold h1, e, alloc_node, kv_of, getn. cbn. rewrite PositiveMap.gss. reflexivity. }
  pose proof (insert_entry_aux_split var h1 l e (k, v) L1 (ti_cnt _ _ T) K1) as Eq.
  pose proof (tinv_insert_new h l (fst sp) (snd sp) k v T (eq_sym (ins_split_app var _ _ _ l)) Hf) as P.
  unfold h', h2. rewrite Eq. exact P.
Qed.

Lemma find_from_with_cap : forall h c k fuel x, find_from (with_cap h c) k x fuel = find_from h k x fuel.
Proof.
  intros h c k. induction fuel as [|f IH]; intros x; [reflexivity|]. cbn [find_from].
  destruct x as [e|]; [|reflexivity]. rewrite getn_with_cap. destruct (getn h e) as [n|]; [|reflexivity].
  destruct (Z.eqb (nk n) k); [reflexivity|apply IH].
Qed.

Lemma find_key_with_cap : forall h c k, find_key (with_cap h c) k = find_key h k.
Proof. intros. unfold find_key. apply find_from_with_cap. Qed.

(* PutAux's growth step never clears the table and cannot fail visibly: it only sets the capacity.
   4294967295 is the size EnsureSize refuses, (uint32)-1, the sentinel of the widest index type (HtStore.idx_limit 2) *)
Definition grown_cap (h : ht) : N :=
  if N.eqb (N.of_nat (cnt h)) (cap h) && negb (N.eqb (cap h * 2) 4294967295) then (cap h * 2)%N else cap h.

Lemma with_cap_same : forall h, with_cap h (cap h) = h.
Proof. destruct h; reflexivity. Qed.

Lemma grow_step : forall h I,
  fst (if N.eqb (N.of_nat (cnt h)) (cap h) then ensure_size dcap h I (cap h * 2) false else (h, I, 0))
  = (with_cap h (grown_cap h), I).
Proof.
  intros h I. unfold grown_cap, ensure_size. destruct (N.eqb (N.of_nat (cnt h)) (cap h)) eqn:Efull; cbn [andb fst].
  2:{ rewrite with_cap_same. reflexivity. }
  apply N.eqb_eq in Efull. replace (N.max (N.of_nat (cnt h)) (N.max (cap h * 2) (cap h))) with (cap h * 2)%N by lia.
  destruct (N.eqb_spec (cap h * 2) (cap h)) as [E1|E1].
  - destruct (N.eqb (cap h * 2) 4294967295); cbn [negb fst]; rewrite ?E1, with_cap_same; reflexivity.
  - destruct (N.eqb_spec (cap h * 2) 0); [lia|].
    destruct (N.eqb (cap h * 2) 4294967295); cbn [negb fst]; rewrite ?with_cap_same; reflexivity.
Qed.

Lemma ensure_allocated_cap : forall h, ensure_allocated dcap h = with_cap h (if N.eqb (cap h) 0 then dcap else cap h).
Proof. intros. unfold ensure_allocated. destruct (N.eqb (cap h) 0); [reflexivity|symmetry; apply with_cap_same]. Qed.

Definition pa_h (r : ht * itab * positive * option Z) : ht := fst (fst (fst r)).
Definition pa_i (r : ht * itab * positive * option Z) : itab := snd (fst (fst r)).
Definition pa_e (r : ht * itab * positive * option Z) : positive := snd (fst r).

Lemma find_key_some_in : forall h l k e, tinv h l -> find_key h k = Some e -> In e l /\ keyf h e = k.
Proof. intros h l k e T H. rewrite (tinv_find_key h l k T) in H. apply find_id_some in H. exact H. Qed.

Lemma put_aux_ok : forall h I k v, TL t h I ->
  okstep t I (pa_h (put_aux var dcap h I k v), pa_i (put_aux var dcap h I k v)) /\
  live (pa_h (put_aux var dcap h I k v)) (pa_e (put_aux var dcap h I k v)).
Proof.
  intros h I k v HTL0. unfold put_aux. rewrite ensure_allocated_cap.
  apply (TL_with_cap t h I (if N.eqb (cap h) 0 then dcap else cap h)) in HTL0.
  set (h0 := with_cap h _) in *. clearbody h0.
  destruct (tl_tinv _ _ _ HTL0) as (l & T).
  destruct (find_key h0 k) as [e|] eqn:Ef.
  - destruct (find_key_some_in h0 l k e T Ef) as [He _].
    destruct (tinv_set_val h0 l e v T He) as (T1 & Lv1 & _ & _).
    assert (HTL1 : TL t (set_val h0 e v) I).
    { apply (TL_same_I t h0); try assumption.
      - eexists; exact T1.
      - destruct (meta_set_val h0 e v) as (_ & _ & _ & _ & Mi). exact Mi.
      - intros c Hc. apply Lv1. exact Hc. }
    destruct (reposition_ok (set_val h0 e v) I e l HTL1 T1 He) as [R S].
    destruct (reposition_aux var (set_val h0 e v) I e) as [h1 I1] eqn:ER.
    unfold pa_h, pa_i, pa_e. cbn [fst snd] in *. split; [exact R|].
    apply S. apply Lv1. apply (tinv_live _ _ T). exact He.
  - pose proof (grow_step h0 I) as G. destruct (if N.eqb _ _ then _ else _) as [[hg I0] st].
    cbn [fst] in G. injection G as -> ->.
    apply (TL_with_cap t h0 I (grown_cap h0)) in HTL0. apply (tinv_with_cap h0 l (grown_cap h0)) in T.
    rewrite <- (find_key_with_cap h0 (grown_cap h0)), (tinv_find_key _ l k T) in Ef.
    pose proof (put_new_spec _ l k v T Ef) as G. cbn zeta in G.
    destruct (alloc_node _ k v) as [h1 e]. cbn [fst snd] in G. destruct G as (_ & _ & T' & _ & _ & Lv & _ & _ & Hil).
    unfold pa_h, pa_i, pa_e. cbn [fst snd]. split; [|apply Lv; right; reflexivity].
    split; cbn [fst snd]; [|apply frame_refl].
    apply (TL_same_I t _ _ _ HTL0); [eexists; exact T'|exact Hil|intros c Hc; apply Lv; left; exact Hc].
Qed.

End V.

Lemma find_key_get : forall h l k, tinv h l ->
  a_get (abs h) k = match find_key h k with Some e => val_of h e | None => None end.
Proof.
  intros h l k T. rewrite (tinv_abs h l T), a_get_map, (tinv_find_key h l k T).
  destruct (find_id h k l) as [e|] eqn:E; [|reflexivity].
  apply find_id_some in E. destruct E as [He _].
  pose proof (tinv_live _ _ T e He) as Le. unfold live in Le. unfold val_of, valf, kvf, kv_of.
  destruct (getn h e); [reflexivity|congruence].
Qed.

Lemma find_key_split : forall h l k e, tinv h l -> find_key h k = Some e ->
  exists l1 l2, l = l1 ++ e :: l2 /\ keyf h e = k.
Proof.
  intros h l k e T Hf. destruct (find_key_some_in h l k e T Hf) as [He Hk].
  destruct (in_split _ _ He) as (l1 & l2 & ->). exists l1, l2. auto.
Qed.

Lemma val_of_valf : forall h e, live h e -> val_of h e = Some (valf h e).
Proof. intros h e L. unfold live in L. unfold val_of, valf, kvf, kv_of. destruct (getn h e); [reflexivity|congruence]. Qed.

Lemma key_of_keyf : forall h e, live h e -> key_of h e = Some (keyf h e).
Proof. intros h e L. unfold live in L. unfold key_of, keyf, kvf, kv_of. destruct (getn h e); [reflexivity|congruence]. Qed.

Lemma kvf_pair : forall h e, kvf h e = (keyf h e, valf h e).
Proof. intros. unfold keyf, valf. destruct (kvf h e); reflexivity. Qed.

Lemma abs_set_val : forall h l1 l2 e v, tinv h (l1 ++ e :: l2) ->
  abs (set_val h e v) = a_set (abs h) (keyf h e) v.
Proof.
  intros h l1 l2 e v T.
  assert (Hin : In e (l1 ++ e :: l2)) by (apply in_elt).
  destruct (tinv_set_val h _ e v T Hin) as (T1 & _ & Ke & Ko).
  pose proof (tinv_nodup _ _ T) as Hnd. destruct (nodup_split_notin _ _ _ Hnd) as [Hn1 Hn2].
  rewrite (tinv_abs _ _ T1), (tinv_abs _ _ T).
  rewrite (a_set_map_split h l1 e l2 v (keys_split_left h l1 e l2 (ti_keys _ _ T))).
  rewrite map_app. cbn [map]. rewrite Ke. f_equal; [|f_equal]; apply map_ext_in; intros y Hy; apply Ko; intro; subst; contradiction.
Qed.

Lemma lt_ent_live : forall var h kv y, live h y -> lt_ent var h kv y = is_lt (cmp_var var kv (kvf h y)).
Proof. intros var h kv y L. unfold lt_ent, cmp_ent. rewrite (kv_of_live h y L). reflexivity. Qed.

Lemma gt_ent_live : forall var h kv y, live h y -> gt_ent var h kv y = is_gt (cmp_var var kv (kvf h y)).
Proof. intros var h kv y L. unfold gt_ent, cmp_ent. rewrite (kv_of_live h y L). reflexivity. Qed.

Lemma abs_insert_new : forall var h l k v, tinv h l -> find_id h k l = None ->
  let h1 := fst (alloc_node h k v) in
  let e := snd (alloc_node h k v) in
  let h2 := insert_entry_aux var h1 e in
  let h' := with_cnt h2 (cnt h2 + 1) in
  exists m1 m2, l = m1 ++ m2 /\ tinv h' (m1 ++ e :: m2) /\
    abs h' = l0_insert_new var (abs h) (asort h) (k, v) /\
    cap h' = cap h /\ asort h' = asort h /\ ilist h' = ilist h /\ e = fresh h /\ ~ In e l /\
    kvf h' e = (k, v) /\ (forall y, y <> e -> kvf h' y = kvf h y) /\ (forall y, live h' y <-> (live h y \/ y = e)).
Proof.
  intros var h l k v T Hf h1 e h2 h'.
  destruct (put_new_spec var h l k v T Hf) as (Ee & Hne & T' & Kve & Kvo & Lv & Hcap & Has & Hil).
  fold h1 e h2 h' in Ee, T', Kve, Kvo, Lv, Hcap, Has, Hil.
  pose proof (ins_split_app var (asort h) h1 (k, v) l) as Esp.
  set (sp := ins_split var (asort h) h1 (k, v) l) in *.
  exists (fst sp), (snd sp). split; [symmetry; exact Esp|]. split; [exact T'|]. split; [|tauto].
  assert (Kh1 : forall y, In y l -> kvf h1 y = kvf h y).
  { intros y Hy. unfold kvf, kv_of, getn, h1, alloc_node. cbn. rewrite PositiveMap.gso by (intros ->; fold e in Hne; rewrite Ee in Hne; contradiction). reflexivity. }
  assert (Kh' : forall y, In y l -> kvf h' y = kvf h1 y).
  { intros y Hy. rewrite Kvo, Kh1; [reflexivity|exact Hy|intros ->; contradiction]. }
  rewrite (tinv_abs _ _ T'), (tinv_abs _ _ T), map_app. cbn [map]. rewrite Kve.
  rewrite (map_ext_in _ _ (fst sp) (fun y Hy => Kh' y ltac:(rewrite <- Esp; apply in_or_app; left; exact Hy))).
  rewrite (map_ext_in _ _ (snd sp) (fun y Hy => Kh' y ltac:(rewrite <- Esp; apply in_or_app; right; exact Hy))).
  unfold sp. rewrite (l0_insert_new_split var (asort h) h1 (k, v) l).
  - f_equal. apply map_ext_in. exact Kh1.
  - intros y Hy. apply lt_ent_live. destruct (alloc_linked h l k v T) as [L1 _]. apply (lk_live _ _ L1). exact Hy.
Qed.

(* ------------------------------------------------------------------ CopyFromAux / CopyFrom *)

Definition grows (h h' : ht) : Prop :=
  (exists l', tinv h' l') /\ ilist h' = ilist h /\ (forall c, live h c -> live h' c).

Lemma copy_fold_spec : forall we src h l, tinv h l -> NoDup (map fst src) ->
  (we = true -> forall e, In e l -> ~ In (keyf h e) (map fst src)) ->
  let h' := fold_left (copy_one we) src h in
  grows h h' /\ abs h' = fold_left (l0_copy_one we) src (abs h) /\ cap h' = cap h /\ asort h' = asort h.
Proof.
  intros we. induction src as [|kv src IH]; intros h l T Hnd Hw.
  - cbn. split; [split; [eexists; exact T|split; [reflexivity|auto]]|auto].
  - cbn [fold_left]. inversion Hnd as [|? ? Hk Hnd']; subst. cbn [map] in Hw.
    assert (Step : exists l1, tinv (copy_one we h kv) l1 /\ ilist (copy_one we h kv) = ilist h /\
                   (forall c, live h c -> live (copy_one we h kv) c) /\
                   abs (copy_one we h kv) = l0_copy_one we (abs h) kv /\
                   cap (copy_one we h kv) = cap h /\ asort (copy_one we h kv) = asort h /\
                   (we = true -> forall e, In e l1 -> ~ In (keyf (copy_one we h kv) e) (map fst src))).
    { unfold copy_one, l0_copy_one.
      assert (Eg : (if we then None else a_get (abs h) (fst kv)) =
                   match (if we then None else find_key h (fst kv)) with Some e => val_of h e | None => None end).
      { destruct we; [reflexivity|]. apply (find_key_get h l _ T). }
      rewrite Eg. clear Eg.
      destruct (if we then None else find_key h (fst kv)) as [e|] eqn:Ef.
      - destruct we; [discriminate|].
        destruct (find_key_split h l _ e T Ef) as (l1 & l2 & -> & Hke).
        assert (Hin : In e (l1 ++ e :: l2)) by apply in_elt.
        rewrite (val_of_valf h e (tinv_live _ _ T e Hin)).
        destruct (tinv_set_val h _ e (snd kv) T Hin) as (T1 & Lv1 & _ & _).
        destruct (meta_set_val h e (snd kv)) as (_ & Mc & _ & Ma & Mi).
        exists (l1 ++ e :: l2). split; [exact T1|]. split; [exact Mi|]. split; [intros c Hc; apply Lv1; exact Hc|].
        split; [rewrite (abs_set_val h l1 l2 e (snd kv) T), Hke; reflexivity|]. split; [exact Mc|]. split; [exact Ma|discriminate].
      - assert (Hf : find_id h (fst kv) l = None).
        { destruct we.
          - destruct (find_id h (fst kv) l) as [e|] eqn:E; [|reflexivity]. exfalso.
            apply find_id_some in E. destruct E as [He Hk']. apply (Hw eq_refl e He). left. symmetry. exact Hk'.
          - rewrite <- (tinv_find_key h l _ T). exact Ef. }
        destruct (abs_insert_new VPlain h l (fst kv) (snd kv) T Hf) as (m1 & m2 & El & T' & Ab & Hcap & Has & Hil & _ & Hne & Kve & Kvo & Lv).
        unfold alloc_node in *. cbn [fst snd insert_entry_aux] in *.
        eexists. split; [exact T'|]. split; [exact Hil|]. split; [intros c Hc; apply Lv; left; exact Hc|].
        split; [rewrite Ab; unfold l0_insert_new; destruct kv; reflexivity|]. split; [exact Hcap|]. split; [exact Has|].
        intros Ew e0 He0. unfold keyf. apply in_elt_inv in He0. destruct He0 as [->|He0].
        + rewrite Kve. cbn [fst]. exact Hk.
        + rewrite <- El in He0. rewrite Kvo by (intros ->; contradiction). intro Hin. apply (Hw Ew e0 He0). right. exact Hin. }
    destruct Step as (l1 & T1 & I1 & Lv1 & A1 & C1 & S1 & Hw1).
    destruct (IH (copy_one we h kv) l1 T1 Hnd' Hw1) as ((HT & Hil & Lv) & A' & C' & S').
    split; [split; [exact HT|split; [congruence|intros c Hc; apply Lv, Lv1; exact Hc]]|].
    split; [rewrite A', A1; reflexivity|split; congruence].
Qed.

Lemma copy_fold_grows : forall we src h l, tinv h l -> NoDup (map fst src) ->
  (we = true -> forall e, In e l -> ~ In (keyf h e) (map fst src)) ->
  grows h (fold_left (copy_one we) src h).
Proof. intros we src h l T Hnd Hw. apply (copy_fold_spec we src h l T Hnd Hw). Qed.

Section V2.
Variable var : variant.
Variable dcap : N.
Variable t : nat.

Lemma copy_from_aux_TL : forall h I src, TL t h I -> NoDup (map fst src) -> TL t (copy_from_aux h src) I.
Proof.
  intros h I src HTL Hnd. destruct (tl_tinv _ _ _ HTL) as (l & T). unfold copy_from_aux.
  destruct (copy_fold_grows (cnt h =? 0) src h l T Hnd) as (HT & Hil & Lv).
  - intros E e He. apply Nat.eqb_eq in E. rewrite (ti_cnt _ _ T) in E. destruct l; [destruct He|discriminate].
  - apply (TL_same_I t h); assumption.
Qed.

Lemma copy_from_ok : forall h I src srccap cf, TL t h I -> NoDup (map fst src) ->
  okstep t I (fst (copy_from var dcap h I src srccap cf)).
Proof.
  intros h I src srccap cf HTL Hnd. unfold copy_from.
  assert (C : exists h1 I1, (if cf then clear_tab dcap h I ((length src =? 0) && (dcap <? cap h)%N) else (h, I)) = (h1, I1) /\ okstep t I (h1, I1)).
  { destruct cf.
    - pose proof (clear_ok t dcap h I ((length src =? 0) && (dcap <? cap h)%N) HTL) as O.
      destruct (clear_tab dcap h I _) as [h1 I1]. exists h1, I1. auto.
    - exists h, I. split; [reflexivity|apply okstep_id; exact HTL]. }
  destruct C as (h1 & I1 & -> & O1). destruct src as [|kv src']; [exact O1|].
  destruct O1 as [HTL1 F1]. cbn [fst snd] in HTL1, F1.
  pose proof (ensure_size_ok t dcap h1 I1 (N.of_nat (cnt h1 + length (kv :: src'))) false HTL1) as O2.
  destruct (ensure_size dcap h1 I1 _ false) as [[h2 I2] st]. cbn [fst snd] in O2.
  destruct O2 as [HTL2 F2]. cbn [fst snd] in HTL2, F2.
  destruct (st =? 0); cbn [fst]; (split; cbn [fst snd]; [|eapply frame_trans; eassumption]).
  - apply sort_aux_TL. apply copy_from_aux_TL; assumption.
  - exact HTL2.
Qed.

(* ------------------------------------------------------------------ Remove(table), Intersect(table) *)

Lemma okstep_fold : forall A (f : ht * itab * nat -> A -> ht * itab * nat),
  (forall h J c x, TL t h J -> okstep t J (fst (f (h, J, c) x))) ->
  forall xs h I c, TL t h I -> okstep t I (fst (fold_left f xs (h, I, c))).
Proof.
  intros A f Hf. induction xs as [|x xs IH]; intros h I c HTL; [apply okstep_id; exact HTL|].
  cbn [fold_left]. pose proof (Hf h I c x HTL) as O. destruct (f (h, I, c) x) as [[h1 I1] c1]. cbn [fst] in O.
  eapply okstep_trans; [exact O|]. apply IH. apply O.
Qed.

Lemma remove_keys_ok : forall ks h I, TL t h I -> okstep t I (fst (remove_keys h I ks)).
Proof.
  intros ks h I HTL. apply okstep_fold; [|exact HTL]. clear. intros h J c k HTL. cbv beta iota.
  destruct (find_key h k) as [e|] eqn:Ef; [|apply okstep_id; exact HTL].
  destruct (tl_tinv _ _ _ HTL) as (l & T). destruct (find_key_some_in h l k e T Ef) as [He _].
  pose proof (remove_entry_TL t h J e HTL (tinv_live _ _ T e He)) as R. destruct (remove_entry h J e). exact R.
Qed.

Lemma key_of_live : forall h e k, key_of h e = Some k -> live h e.
Proof. intros h e k H. unfold key_of in H. unfold live. destruct (getn h e); [discriminate|discriminate]. Qed.

Lemma intersect_ids_ok : forall other l h I, TL t h I -> okstep t I (fst (intersect_ids h I other l)).
Proof.
  intros other l h I HTL. apply okstep_fold; [|exact HTL]. clear. intros h J c e HTL. cbv beta iota.
  destruct (key_of h e) as [k|] eqn:Ek; [|apply okstep_id; exact HTL].
  destruct (a_get other k); [apply okstep_id; exact HTL|].
  pose proof (remove_entry_TL t h J e HTL (key_of_live _ _ _ Ek)) as R. destruct (remove_entry h J e). exact R.
Qed.

End V2.
