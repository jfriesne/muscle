(* C16 -- Clear, RemoveHeadMulti, RemoveTailMulti: invariant preservation and effect on the abstract sequence. *)
From Coq Require Import List Arith ZArith Bool Lia ZifyBool.
From Muscle Require Import Cont.QueueModel Cont.QueueLemmas Cont.QueueInv.
Import ListNotations.
Local Open Scope nat_scope.

Section Ops1.
Variable sq : nat.
Implicit Types (ow : bool) (q : q1).

Lemma clear_window_shape k : forall q, head q < qsize q -> k <= qsize q ->
  let q' := clear_window q k in
  st q' = st q /\ qsize q' = qsize q /\ cnt q' = cnt q /\ head q' = head q /\ tail q' = tail q /\
  inl q' = inl q /\
  forall i, i < qsize q -> getu q' i = if i <? k then dflt else getu q i.
Proof.
  induction k as [|k IH]; intros q Hh Hk; cbn [clear_window].
  - repeat split; reflexivity.
  - rewrite <- setu_set_raw.
    destruct (IH (setu q k dflt)) as (H1&H2&H3&H4&H5&H7&H6); autorewrite with qdb; try lia.
    autorewrite with qdb in *. repeat split; try assumption.
    intros i Hi. rewrite H6 by lia. rewrite getu_setu by lia. dif; fin.
Qed.

Lemma inv_fast_clear ow q : inv ow sq q ->
  (ow = true -> forall i, i < qsize q -> getu q i = dflt) -> inv ow sq (fast_clear q).
Proof.
  intros I H. unfold fast_clear. apply (inv_window ow sq q); try reflexivity; try assumption; cbn [cnt head tail]; try lia.
  intros Ho i Hi. assert (Hh : head q < qsize q) by (apply (inv_head _ _ q I); lia).
  rewrite getu_head0 by (reflexivity || exact (proj2 Hi)). cbn [arr].
  rewrite nth_arr_getu by (assumption || lia). apply (H Ho). apply intern_extern; (assumption || lia).
Qed.

Lemma cleared_ok ow q : inv ow sq q ->
  let X := (if ow then clear_window q (cnt q) else q) in
  inv ow sq X /\ qsize X = qsize q /\ (ow = true -> forall i, i < qsize X -> getu X i = dflt).
Proof.
  intros I X. subst X. destruct ow; [|split; [assumption|split; [reflexivity|discriminate]]].
  pose proof (inv_cnt _ _ q I) as Hc. destruct (Nat.eq_dec (qsize q) 0) as [Hz|Hz].
  - (* an adopted heap array without slots *)
    replace (cnt q) with 0 by lia. cbn [clear_window]. split; [assumption|]. split; [reflexivity|]. intros _ i Hi. lia.
  - pose proof (inv_head _ _ q I ltac:(lia)) as Hh.
    destruct (clear_window_shape (cnt q) q Hh Hc) as (H1&H2&H3&H4&H5&H7&H6).
    split; [|split; [assumption|]].
    + apply (inv_same_shape _ _ q); try assumption. intros i Hi. rewrite H6 by lia. dif; fin.
    + intros _ i Hi. rewrite H2 in Hi. rewrite H6 by lia. dif; [reflexivity|].
      apply (inv_clean _ _ q I eq_refl). lia.
Qed.

Lemma inv_released ow q : inv ow sq q -> st q <> SSmall -> inv ow sq (released q).
Proof.
  intros I Hs. unfold released. constructor; unfold store_ok, clean, inl_ok, qsize; cbn [st arr cnt head tail inl length].
  - exact (inv_sq _ _ q I).
  - lia.
  - lia.
  - lia.
  - reflexivity.
  - intros _ i Hi. lia.
  - intros _. exact (inv_inl _ _ q I Hs).
Qed.

Lemma clear_spec ow q r : inv ow sq q -> inv ow sq (clear ow q r) /\ cnt (clear ow q r) = 0.
Proof.
  intros I. split; [|unfold clear; destruct (st q), r; reflexivity].
  unfold clear. destruct (cleared_ok ow q I) as (J1&_&J4).
  pose proof (inv_store _ _ q I) as S. unfold store_ok in S.
  destruct (st q) eqn:Es; try destruct r; try (apply inv_released; [assumption|congruence]);
    try (apply inv_fast_clear; assumption).
  apply inv_fast_clear; [assumption|]. intros _ i Hi. lia.
Qed.

Lemma abs_cnt0 q : cnt q = 0 -> abs q = [].
Proof. intros H. unfold abs. rewrite H. reflexivity. Qed.

Lemma firstn_abs_all q n : cnt q <= n -> firstn n (abs q) = abs q.
Proof. intros H. apply firstn_all2. rewrite abs_length. exact H. Qed.

Lemma iter_remove_tail ow n : forall q, inv ow sq q -> n <= cnt q ->
  let q' := iter n (remove_tail ow) q in
  inv ow sq q' /\ abs q' = firstn (cnt q - n) (abs q).
Proof.
  induction n as [|n IH]; intros q I Hn; cbn [iter].
  - rewrite Nat.sub_0_r, firstn_abs_all by lia. split; [assumption|reflexivity].
  - destruct (remove_tail_shape ow sq q I ltac:(lia)) as (_ & _ & Hc & _).
    destruct (IH (remove_tail ow q)) as (J1&J2).
    + apply inv_remove_tail; [assumption|lia].
    + lia.
    + split; [assumption|].
      rewrite J2, (abs_remove_tail ow sq), firstn_firstn by (assumption || lia). f_equal. lia.
Qed.

(* trivial items: any part of the window is a queue on the same array *)
Lemma sub_window q a n : inv false sq q -> 0 < n -> a + n <= cnt q ->
  let q' := mkQ (st q) (arr q) n (intern q a) (intern q (a + n - 1)) (inl q) in
  inv false sq q' /\ abs q' = firstn n (skipn a (abs q)).
Proof.
  intros I Hn Ha q'. pose proof (inv_cnt _ _ q I). pose proof (inv_hd _ _ q I ltac:(lia)) as Hh.
  assert (S : forall i, i < n -> intern q' i = intern q (a + i)).
  { intros i Hi. rewrite (intern_shift q q' a i) by (reflexivity || lia). replace (a + i <? qsize q) with true by lia.
    reflexivity. }
  split.
  - apply (inv_window false sq q); try reflexivity; try assumption; try discriminate; cbn [cnt head tail q'].
    + lia.
    + intros _. apply intern_lt; lia.
    + intros _. rewrite S by lia. f_equal. lia.
  - apply abs_ext; autorewrite with nthdb; cbn [cnt q']; [lia|].
    intros i Hi. autorewrite with nthdb in Hi. unfold getu at 1. rewrite S by lia. cbn [arr q'].
    rewrite nth_firstn', nth_skipn', nth_abs by lia. replace (i <? n) with true by lia. reflexivity.
Qed.

Lemma remove_tail_multi_spec ow q n : inv ow sq q ->
  let r := remove_tail_multi ow q n in
  inv ow sq (fst r) /\ abs (fst r) = firstn (cnt q - n) (abs q) /\ snd r = Nat.min n (cnt q).
Proof.
  intros I r. subst r. unfold remove_tail_multi.
  destruct (Nat.min n (cnt q)) as [|m] eqn:Em.
  - cbn [fst snd]. rewrite firstn_abs_all by lia. auto.
  - destruct (S m =? cnt q) eqn:E1; [|destruct ow]; cbn [fst snd].
    + destruct (clear_spec ow q false I) as [J1 J2].
      replace (cnt q - n) with 0 by lia. rewrite abs_cnt0 by assumption. auto.
    + destruct (iter_remove_tail true (S m) q I ltac:(lia)) as (J1&J2).
      replace (cnt q - n) with (cnt q - S m) by lia. auto.
    + pose proof (inv_cnt _ _ q I). pose proof (inv_hd _ _ q I ltac:(lia)) as Hh.
      rewrite (inv_tail _ _ q I) by lia. rewrite intern_back by lia.
      replace (head q) with (intern q 0) by (apply intern_0; exact Hh).
      replace (cnt q - S m - 1) with (0 + (cnt q - S m) - 1) by lia.
      destruct (sub_window q 0 (cnt q - S m) I ltac:(lia) ltac:(lia)) as [J1 J2].
      replace (cnt q - n) with (cnt q - S m) by lia. auto.
Qed.

Lemma iter_remove_head ow n : forall q, inv ow sq q -> n <= cnt q ->
  let q' := iter n (remove_head ow) q in
  inv ow sq q' /\ abs q' = skipn n (abs q).
Proof.
  induction n as [|n IH]; intros q I Hn; cbn [iter].
  - split; [assumption|reflexivity].
  - destruct (remove_head_shape ow sq q I ltac:(lia)) as (_ & _ & Hc & _).
    destruct (IH (remove_head ow q)) as (J1&J2).
    + apply inv_remove_head; [assumption|lia].
    + lia.
    + split; [assumption|]. rewrite J2. rewrite (abs_remove_head ow sq q I) by lia. reflexivity.
Qed.

Lemma remove_head_multi_spec ow q n : inv ow sq q ->
  let r := remove_head_multi ow q n in
  inv ow sq (fst r) /\ abs (fst r) = skipn n (abs q) /\ snd r = Nat.min n (cnt q).
Proof.
  intros I r. subst r. unfold remove_head_multi.
  destruct (Nat.min n (cnt q)) as [|m] eqn:Em.
  - cbn [fst snd]. assert (n = 0 \/ cnt q = 0) as [->| Hz] by lia; [auto|].
    rewrite (abs_cnt0 q Hz), skipn_nil. auto.
  - destruct (S m =? cnt q) eqn:E1; [|destruct ow]; cbn [fst snd].
    + destruct (clear_spec ow q false I) as [J1 J2].
      rewrite skipn_all2 by (rewrite abs_length; lia). rewrite abs_cnt0 by assumption. auto.
    + destruct (iter_remove_head true (S m) q I ltac:(lia)) as (J1&J2).
      replace n with (S m) by lia. auto.
    + pose proof (inv_cnt _ _ q I). pose proof (inv_hd _ _ q I ltac:(lia)) as Hh.
      rewrite mod_intern by lia. rewrite (inv_tail _ _ q I) by lia.
      replace (cnt q - 1) with (S m + (cnt q - S m) - 1) by lia.
      destruct (sub_window q (S m) (cnt q - S m) I ltac:(lia) ltac:(lia)) as [J1 J2].
      rewrite firstn_all2 in J2 by (autorewrite with nthdb; lia).
      replace n with (S m) by lia. auto.
Qed.

End Ops1.
