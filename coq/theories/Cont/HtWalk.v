(* C09 -- the link-following functions of the model computed on the represented list, and the
   table invariant [tinv]. *)
From Coq Require Import List Arith ZArith NArith PArith Bool Lia FMapPositive.
From Muscle Require Import Cont.HtModel Cont.HtLemmas Cont.HtRepr.
Import ListNotations.

Definition kvf (h : ht) (e : positive) : Z * Z := match kv_of h e with Some kv => kv | None => (0%Z, 0%Z) end.
Definition keyf (h : ht) (e : positive) : Z := fst (kvf h e).
Definition valf (h : ht) (e : positive) : Z := snd (kvf h e).

Lemma kv_of_live : forall h e, live h e -> kv_of h e = Some (kvf h e).
Proof. intros h e L. unfold kvf, kv_of, live in *. destruct (getn h e); [reflexivity|congruence]. Qed.

Lemma kvf_same_data : forall h h', same_data h h' -> forall e, kvf h' e = kvf h e.
Proof. intros h h' [K _] e. unfold kvf. rewrite K. reflexivity. Qed.

Lemma next_of_suffix : forall h l pre x suf, linked h l -> l = pre ++ x :: suf -> get_next h x = head_opt suf.
Proof.
  intros h l pre x suf L ->. rewrite (lk_next _ _ L) by (apply in_elt).
  apply next_in_mid. apply (nodup_split_notin _ _ _ (lk_nodup _ _ L)).
Qed.

Lemma prev_of_prefix : forall h l pre x suf, linked h l -> l = pre ++ x :: suf -> get_prev h x = last_of pre.
Proof.
  intros h l pre x suf L ->. rewrite (lk_prev _ _ L) by (apply in_elt).
  apply prev_in_mid. apply (nodup_split_notin _ _ _ (lk_nodup _ _ L)).
Qed.

Lemma walk_suffix : forall h l, linked h l -> forall n pre suf, l = pre ++ suf ->
  walk h (head_opt suf) n = firstn n suf.
Proof.
  intros h l L. induction n as [|n IH]; intros pre suf E; [reflexivity|].
  destruct suf as [|x suf']; [reflexivity|]. cbn [head_opt walk firstn]. f_equal.
  rewrite (next_of_suffix h l pre x suf' L E). apply (IH (pre ++ [x])). rewrite <- app_assoc. exact E.
Qed.

Lemma walk_all : forall h l, linked h l -> walk h (hd h) (length l) = l.
Proof.
  intros h l L. rewrite (lk_hd _ _ L). rewrite (walk_suffix h l L (length l) [] l eq_refl). apply firstn_all.
Qed.

Lemma walk_back_prefix : forall h l, linked h l -> forall n pre suf, l = pre ++ suf ->
  walk_back h (last_of pre) n = firstn n (rev pre).
Proof.
  intros h l L. induction n as [|n IH]; intros pre suf E; [reflexivity|].
  destruct (last_of pre) as [x|] eqn:EL.
  - destruct (last_of_split _ _ _ EL) as [pre' ->]. rewrite rev_app_distr. cbn [rev app walk_back firstn]. f_equal.
    rewrite <- app_assoc in E. cbn [app] in E.
    rewrite (prev_of_prefix h l pre' x suf L E). apply (IH pre' (x :: suf)). exact E.
  - apply last_of_none in EL. subst pre. reflexivity.
Qed.

Lemma walk_back_all : forall h l, linked h l -> walk_back h (tl h) (length l) = rev l.
Proof.
  intros h l L. rewrite (lk_tl _ _ L).
  rewrite (walk_back_prefix h l L (length l) l [] (eq_sym (app_nil_r l))).
  rewrite <- rev_length. apply firstn_all.
Qed.

Lemma nth_next_suffix : forall h l, linked h l -> forall s pre suf, l = pre ++ suf ->
  nth_next h (head_opt suf) s = head_opt (skipn s suf).
Proof.
  intros h l L. induction s as [|s IH]; intros pre suf E; [reflexivity|].
  destruct suf as [|x suf']; [reflexivity|]. cbn [head_opt nth_next skipn].
  rewrite (next_of_suffix h l pre x suf' L E). apply (IH (pre ++ [x])). rewrite <- app_assoc. exact E.
Qed.

Lemma nth_prev_prefix : forall h l, linked h l -> forall s pre suf, l = pre ++ suf ->
  nth_prev h (last_of pre) s = head_opt (skipn s (rev pre)).
Proof.
  intros h l L. induction s as [|s IH]; intros pre suf E.
  - cbn [nth_prev skipn]. reflexivity.
  - destruct (last_of pre) as [x|] eqn:EL.
    + destruct (last_of_split _ _ _ EL) as [pre' ->]. rewrite rev_app_distr. cbn [rev app nth_prev skipn].
      rewrite <- app_assoc in E. cbn [app] in E.
      rewrite (prev_of_prefix h l pre' x suf L E). apply (IH pre' (x :: suf)). exact E.
    + apply last_of_none in EL. subst pre. reflexivity.
Qed.

Lemma head_skipn_nth_error : forall A (l : list A) n, head_opt (skipn n l) = nth_error l n.
Proof. induction l as [|x l IH]; intros [|n]; cbn; auto. Qed.

Lemma nth_error_rev : forall A (l : list A) n, n < length l -> nth_error (rev l) n = nth_error l (length l - S n).
Proof.
  intros A l n H. destruct (nth_error l (length l - S n)) as [x|] eqn:E.
  - rewrite (nth_error_nth' _ x) by (rewrite rev_length; lia). rewrite rev_nth by lia.
    f_equal. apply nth_error_nth. exact E.
  - apply nth_error_None in E. lia.
Qed.

Lemma entry_at_linked : forall h l idx, linked h l -> cnt h = length l -> entry_at h idx = nth_error l idx.
Proof.
  intros h l idx L C. unfold entry_at. rewrite C. destruct (idx <? length l) eqn:E.
  - apply Nat.ltb_lt in E. destruct (idx <? length l / 2).
    + rewrite (lk_hd _ _ L). rewrite (nth_next_suffix h l L idx [] l eq_refl). apply head_skipn_nth_error.
    + rewrite (lk_tl _ _ L). rewrite (nth_prev_prefix h l L _ l [] (eq_sym (app_nil_r l))).
      rewrite head_skipn_nth_error. rewrite nth_error_rev by lia. f_equal. lia.
  - apply Nat.ltb_ge in E. symmetry. apply nth_error_None. exact E.
Qed.

Fixpoint find_id (h : ht) (k : Z) (l : list positive) : option positive :=
  match l with
  | [] => None
  | e :: r => if Z.eqb (keyf h e) k then Some e else find_id h k r
  end.


Lemma keyf_live : forall h e n, getn h e = Some n -> keyf h e = nk n /\ valf h e = nv n.
Proof. intros h e n E. unfold keyf, valf, kvf, kv_of. rewrite E. split; reflexivity. Qed.

Lemma find_from_suffix : forall h l k, linked h l -> forall n pre suf, l = pre ++ suf ->
  find_from h k (head_opt suf) n = find_id h k (firstn n suf).
Proof.
  intros h l k L. induction n as [|n IH]; intros pre suf E; [reflexivity|].
  destruct suf as [|x suf']; [reflexivity|]. cbn [head_opt find_from firstn find_id].
  assert (Lx : live h x) by (apply (lk_live _ _ L); subst l; apply in_elt).
  unfold live in Lx. destruct (getn h x) as [nd|] eqn:Ex; [|congruence].
  destruct (keyf_live _ _ _ Ex) as [-> _]. destruct (Z.eqb (nk nd) k); [reflexivity|].
  assert (En : nnext nd = get_next h x) by (unfold get_next; rewrite Ex; reflexivity).
  rewrite En, (next_of_suffix h l pre x suf' L E). apply (IH (pre ++ [x])). rewrite <- app_assoc. exact E.
Qed.

Record tinv (h : ht) (l : list positive) : Prop := mkTinv {
  ti_linked : linked h l;
  ti_cnt : cnt h = length l;
  ti_dom : forall e, live h e -> In e l;
  ti_fresh : forall e, live h e -> (e < fresh h)%positive;
  ti_keys : NoDup (map (keyf h) l) }.

Lemma tinv_live : forall h l, tinv h l -> forall e, In e l -> live h e.
Proof. intros h l T. apply (lk_live _ _ (ti_linked _ _ T)). Qed.

Lemma tinv_nodup : forall h l, tinv h l -> NoDup l.
Proof. intros h l T. apply (lk_nodup _ _ (ti_linked _ _ T)). Qed.

Lemma tinv_ids : forall h l, tinv h l -> ids h = l.
Proof. intros h l T. unfold ids. rewrite (ti_cnt _ _ T). apply walk_all. apply T. Qed.

Lemma kvs_of_live : forall h l, (forall e, In e l -> live h e) -> kvs_of h l = map (kvf h) l.
Proof.
  intros h l. induction l as [|x l IH]; intros H; [reflexivity|].
  unfold kvs_of in *. cbn [flat_map map]. rewrite kv_of_live by (apply H; left; reflexivity).
  cbn [app]. f_equal. apply IH. intros e He. apply H. right; exact He.
Qed.

Lemma tinv_abs : forall h l, tinv h l -> abs h = map (kvf h) l.
Proof. intros h l T. unfold abs. rewrite (tinv_ids h l T). apply kvs_of_live. apply (lk_live _ _ (ti_linked _ _ T)). Qed.

Lemma abs_length : forall h l, tinv h l -> length (abs h) = cnt h.
Proof. intros h l T. rewrite (tinv_abs h l T), map_length. symmetry. apply (ti_cnt _ _ T). Qed.

Lemma abs_nodup_keys : forall h l, tinv h l -> NoDup (map fst (abs h)).
Proof. intros h l T. rewrite (tinv_abs _ l T), map_map. apply (ti_keys _ _ T). Qed.

Lemma tinv_abs_back : forall h l, tinv h l -> abs_back h = rev (abs h).
Proof.
  intros h l T. rewrite (tinv_abs h l T). unfold abs_back. rewrite (ti_cnt _ _ T), (walk_back_all h l (ti_linked _ _ T)).
  rewrite kvs_of_live by (intros e He; apply (lk_live _ _ (ti_linked _ _ T)); apply in_rev; exact He).
  apply map_rev.
Qed.

Lemma tinv_find_key : forall h l k, tinv h l -> find_key h k = find_id h k l.
Proof.
  intros h l k T. unfold find_key. rewrite (ti_cnt _ _ T), (lk_hd _ _ (ti_linked _ _ T)).
  rewrite (find_from_suffix h l k (ti_linked _ _ T) (length l) [] l eq_refl). rewrite firstn_all. reflexivity.
Qed.

Lemma find_id_some : forall h k l e, find_id h k l = Some e -> In e l /\ keyf h e = k.
Proof.
  induction l as [|x l IH]; intros e H; cbn in H; [discriminate|].
  destruct (Z.eqb (keyf h x) k) eqn:E.
  - inversion H; subst. apply Z.eqb_eq in E. split; [left; reflexivity|exact E].
  - apply IH in H. destruct H. split; [right; assumption|assumption].
Qed.

Lemma find_id_none : forall h k l, find_id h k l = None -> forall e, In e l -> keyf h e <> k.
Proof.
  induction l as [|x l IH]; intros H e He; [destruct He|]. cbn in H.
  destruct (Z.eqb (keyf h x) k) eqn:E; [discriminate|]. apply Z.eqb_neq in E.
  destruct He as [->|He]; [exact E|apply IH; assumption].
Qed.

Lemma find_id_unique : forall h k l e, NoDup (map (keyf h) l) -> In e l -> keyf h e = k -> find_id h k l = Some e.
Proof.
  induction l as [|x l IH]; intros e Hnd He Hk; [destruct He|]. cbn. inversion Hnd as [|? ? Hx Hnd']; subst.
  destruct (Z.eqb (keyf h x) (keyf h e)) eqn:E.
  - apply Z.eqb_eq in E. destruct He as [->|He]; [reflexivity|].
    exfalso. apply Hx. rewrite E. apply in_map. exact He.
  - destruct He as [->|He]; [rewrite Z.eqb_refl in E; discriminate|]. apply IH; auto.
Qed.

Lemma find_id_split : forall h k l e, find_id h k l = Some e ->
  exists l1 l2, l = l1 ++ e :: l2 /\ (forall y, In y l1 -> keyf h y <> k).
Proof.
  induction l as [|x l IH]; intros e H; cbn in H; [discriminate|].
  destruct (Z.eqb (keyf h x) k) eqn:E.
  - inversion H; subst. exists [], l. split; [reflexivity|intros y []].
  - destruct (IH e H) as (l1 & l2 & -> & Hl1). exists (x :: l1), l2. split; [reflexivity|].
    intros y [->|Hy]; [apply Z.eqb_neq; exact E|apply Hl1; exact Hy].
Qed.

Lemma a_get_map : forall h k l, a_get (map (kvf h) l) k = match find_id h k l with Some e => Some (valf h e) | None => None end.
Proof.
  induction l as [|x l IH]; [reflexivity|]. cbn [map a_get find_id]. unfold keyf, valf in *.
  destruct (kvf h x) as [kx vx] eqn:Ex. cbn [fst snd]. destruct (Z.eqb kx k); [rewrite Ex; reflexivity|exact IH].
Qed.

