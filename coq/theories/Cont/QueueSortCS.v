(* C16 -- the code-shaped in-place stable merge sort (bubble base case, Merge with Lower/Upper cuts and the
   rotation by gcd cycles) computes the ideal stable sort [l0_sort]; the representation-level Sort refines it. *)
From Coq Require Import List Arith ZArith NArith Bool Lia ZifyBool Sorting.Sorted.
From Muscle Require Import Cont.QueueModel Cont.QueueLemmas Cont.QueueInv Cont.QueueOps2 Cont.QueueOps3
  Cont.QueueRotateCS Cont.QueueSort.
Import ListNotations.
Local Open Scope nat_scope.
(* [lia] has to see through the halvings len / 2 of the binary searches and of Merge *)
Ltac Zify.zify_post_hook ::= Z.to_euclidean_division_equations.

Lemma nth_nil' {A} i (d : A) : nth i [] d = d.
Proof. destruct i; reflexivity. Qed.
#[export] Hint Rewrite @nth_nil' : nthdb.

Ltac lsolve := autorewrite with nthdb; cbn [length]; autorewrite with nthdb; dif; fin.

Lemma at_part (P M S : list Z) j : j < length M -> at_ (P ++ M ++ S) (length P + j) = at_ M j.
Proof. intros H. unfold at_. rewrite app_nth2_plus. apply app_nth1. exact H. Qed.

Section Stable.
Variable k : Z -> Z.
Local Notation lt := (lt_by k).
Local Notation ins := (insert_by k).
Local Notation isort := (isort_by k).
Local Notation sorted := (StronglySorted (key_le k)).

Fixpoint smerge (A B : list Z) {struct A} : list Z :=
  match A with
  | [] => B
  | a :: A' =>
      (fix aux (B : list Z) : list Z :=
         match B with
         | [] => A
         | b :: B' => if lt b a then b :: aux B' else a :: smerge A' B
         end) B
  end.

Lemma smerge_nil_r A : smerge A [] = A.
Proof. destruct A; reflexivity. Qed.

Lemma smerge_cons a A b B :
  smerge (a :: A) (b :: B) = if lt b a then b :: smerge (a :: A) B else a :: smerge A (b :: B).
Proof. reflexivity. Qed.

(* cutting both runs: everything of A1, B1 precedes everything of A2, B2 in the merged order *)
Lemma smerge_cut A1 : forall B1 A2 B2,
  (forall a1 b2, In a1 A1 -> In b2 B2 -> lt b2 a1 = false) ->
  (forall b1 a2, In b1 B1 -> In a2 A2 -> lt b1 a2 = true) ->
  smerge (A1 ++ A2) (B1 ++ B2) = smerge A1 B1 ++ smerge A2 B2.
Proof.
  induction A1 as [|a A1 IHA]; intros B1.
  - induction B1 as [|b B1 IHB]; intros A2 B2 H1 H2; cbn [app]; [reflexivity|].
    destruct A2 as [|a2 A2]; [reflexivity|]. cbn [smerge app]. fold (smerge (a2 :: A2)).
    change ((fix aux (B : list Z) : list Z := match B with
              | [] => a2 :: A2 | b0 :: B' => if lt b0 a2 then b0 :: aux B' else a2 :: smerge A2 B end) (B1 ++ B2))
      with (smerge (a2 :: A2) (B1 ++ B2)).
    rewrite (H2 b a2) by (left; reflexivity). f_equal.
    apply (IHB (a2 :: A2) B2); [intros ? ? []|]. intros b1 a2' Hb Ha. apply H2; [right; assumption|assumption].
  - induction B1 as [|b B1 IHB]; intros A2 B2 H1 H2.
    + cbn [app]. destruct B2 as [|b2 B2].
      * rewrite !smerge_nil_r. reflexivity.
      * change ((a :: A1) ++ A2) with (a :: (A1 ++ A2)). rewrite smerge_cons.
        rewrite (H1 a b2) by (left; reflexivity). rewrite smerge_nil_r. cbn [app]. f_equal.
        assert (E : smerge (A1 ++ A2) ([] ++ b2 :: B2) = smerge A1 [] ++ smerge A2 (b2 :: B2)).
        { apply IHA; [|intros ? ? []]. intros a1 b2' Ha Hb. apply H1; [right; assumption|assumption]. }
        cbn [app] in E. rewrite E, smerge_nil_r. reflexivity.
    + change ((a :: A1) ++ A2) with (a :: (A1 ++ A2)). change ((b :: B1) ++ B2) with (b :: (B1 ++ B2)).
      rewrite !smerge_cons. destruct (lt b a) eqn:E.
      * cbn [app]. f_equal. change (a :: A1 ++ A2) with ((a :: A1) ++ A2).
        apply IHB; [assumption|]. intros b1 a2 Hb Ha. apply H2; [right; assumption|assumption].
      * cbn [app]. f_equal. change (b :: B1 ++ B2) with ((b :: B1) ++ B2).
        apply IHA; [|assumption]. intros a1 b2 Ha Hb. apply H1; [right; assumption|assumption].
Qed.

(* behind every item whose key is <= the key of x *)
Fixpoint ins_after (x : Z) (l : list Z) : list Z :=
  match l with
  | [] => [x]
  | y :: t => if lt x y then x :: l else y :: ins_after x t
  end.

Lemma ins_ins_after p x S : ins p (ins_after x S) = ins_after x (ins p S).
Proof.
  induction S as [|y t IH];
    repeat (cbn [ins_after insert_by]; unfold lt_by in *;
            match goal with |- context [if ?c then _ else _] => destruct c eqn:? end);
    cbn [ins_after insert_by]; try reflexivity; try lia; try (f_equal; exact IH).
Qed.

Lemma isort_snoc P x : isort (P ++ [x]) = ins_after x (isort P).
Proof.
  induction P as [|p P IH]; [reflexivity|]. cbn [app isort_by fold_right].
  fold (isort (P ++ [x])). fold (isort P). rewrite IH. apply ins_ins_after.
Qed.

Lemma ins_after_snoc_lt x P p : lt x p = true -> ins_after x (P ++ [p]) = ins_after x P ++ [p].
Proof.
  intros H. induction P as [|y t IH]; cbn [app ins_after]; [rewrite H; reflexivity|].
  destruct (lt x y); [reflexivity|]. rewrite IH. reflexivity.
Qed.

Lemma ins_after_all_le x P : (forall y, In y P -> lt x y = false) -> ins_after x P = P ++ [x].
Proof.
  induction P as [|y t IH]; intros H; cbn [app ins_after]; [reflexivity|].
  rewrite (H y) by (left; reflexivity). rewrite IH; [reflexivity|]. intros z Hz. apply H. right. exact Hz.
Qed.

Lemma smerge_nil_l B : smerge [] B = B.
Proof. reflexivity. Qed.

Lemma ins_smerge a X : forall Y, ins a (smerge X Y) = smerge (ins a X) Y.
Proof.
  induction X as [|x X IHX]; intros Y.
  - rewrite smerge_nil_l. cbn [insert_by]. induction Y as [|y Y IHY]; [reflexivity|].
    rewrite smerge_cons, smerge_nil_l. cbn [insert_by]. unfold lt_by.
    destruct (Z.leb (k a) (k y)) eqn:E1; destruct (Z.ltb (k y) (k a)) eqn:E2; try lia; [reflexivity|].
    rewrite IHY. reflexivity.
  - induction Y as [|y Y IHY]; [rewrite !smerge_nil_r; reflexivity|].
    rewrite smerge_cons. cbn [insert_by]. unfold lt_by in *.
    destruct (Z.leb (k a) (k x)) eqn:E1.
    + rewrite smerge_cons. unfold lt_by. destruct (Z.ltb (k y) (k a)) eqn:E2.
      * replace (Z.ltb (k y) (k x)) with true by lia. cbn [insert_by].
        replace (Z.leb (k a) (k y)) with false by lia.
        rewrite IHY. cbn [insert_by]. rewrite E1. reflexivity.
      * destruct (Z.ltb (k y) (k x)) eqn:E3; cbn [insert_by].
        -- replace (Z.leb (k a) (k y)) with true by lia. rewrite smerge_cons. unfold lt_by. rewrite E3. reflexivity.
        -- rewrite E1. rewrite smerge_cons. unfold lt_by. rewrite E3. reflexivity.
    + rewrite smerge_cons. unfold lt_by. destruct (Z.ltb (k y) (k x)) eqn:E3; cbn [insert_by].
      * replace (Z.leb (k a) (k y)) with false by lia. rewrite IHY. cbn [insert_by]. rewrite E1. reflexivity.
      * rewrite E1. rewrite IHX. reflexivity.
Qed.

(* merging two sorted runs is sorting their concatenation *)
Lemma smerge_isort A B : smerge (isort A) (isort B) = isort (A ++ B).
Proof.
  induction A as [|a A IH]; [reflexivity|]. cbn [app isort_by fold_right].
  fold (isort A). fold (isort (A ++ B)). rewrite <- IH, ins_smerge. reflexivity.
Qed.

Lemma sorted_app X Y : sorted (X ++ Y) <-> sorted X /\ sorted Y /\ (forall x y, In x X -> In y Y -> key_le k x y).
Proof.
  induction X as [|a X IH]; cbn [app].
  - split; [intros H; split; [constructor|split; [exact H|intros ? ? []]]|tauto].
  - split.
    + intros H. inversion H as [|? ? H1 H2]; subst. apply IH in H1. destruct H1 as (S1&S2&S3).
      rewrite Forall_app in H2. destruct H2 as [F1 F2]. split; [constructor; assumption|]. split; [assumption|].
      intros x y [<-|Hx] Hy; [rewrite Forall_forall in F2; apply F2; assumption|apply S3; assumption].
    + intros (S1&S2&S3). inversion S1 as [|? ? H1 H2]; subst. constructor.
      * apply IH. split; [assumption|]. split; [assumption|]. intros x y Hx Hy. apply S3; [right|]; assumption.
      * rewrite Forall_app. split; [assumption|]. rewrite Forall_forall. intros y Hy. apply S3; [left; reflexivity|assumption].
Qed.

Lemma sorted_cons_inv a X : sorted (a :: X) -> sorted X /\ forall x, In x X -> key_le k a x.
Proof. intros H. inversion H as [|? ? H1 H2]; subst. split; [assumption|]. rewrite Forall_forall in H2. exact H2. Qed.

Lemma swap_adjacent Pre p x S :
  swap_list (Pre ++ [p] ++ [x] ++ S) (length Pre + 1) (length Pre) = Pre ++ [x] ++ [p] ++ S.
Proof.
  unfold swap_list. cbn [app].
  replace (nth (length Pre) (Pre ++ p :: x :: S) 0%Z) with p by (symmetry; apply nth_middle).
  replace (Pre ++ p :: x :: S) with ((Pre ++ [p]) ++ x :: S) by (rewrite <- app_assoc; reflexivity).
  replace (length Pre + 1) with (length (Pre ++ [p])) by (rewrite app_length; reflexivity).
  rewrite nth_middle, upd_app_mid, <- app_assoc. cbn [app]. apply upd_app_mid.
Qed.

Lemma bubble_in_spec Pre x S : forall P0, sorted P0 ->
  bubble_in k (Pre ++ P0 ++ [x] ++ S) (length Pre) (length Pre + length P0) = Pre ++ ins_after x P0 ++ S.
Proof.
  intros P0. revert S. induction P0 as [|p P0 IH] using rev_ind; intros S Hs.
  - cbn [app length ins_after]. rewrite Nat.add_0_r. destruct (length Pre) as [|n] eqn:E; cbn [bubble_in]; [reflexivity|].
    replace (Datatypes.S n <? Datatypes.S n) with false by lia. reflexivity.
  - rewrite app_length. cbn [length]. replace (length Pre + (length P0 + 1)) with (Datatypes.S (length Pre + length P0)) by lia.
    cbn [bubble_in]. replace (length Pre <? Datatypes.S (length Pre + length P0)) with true by lia.
    apply sorted_app in Hs. destruct Hs as (S1&_&S3).
    assert (Ex : at_ (Pre ++ (P0 ++ [p]) ++ [x] ++ S) (Datatypes.S (length Pre + length P0)) = x) by (unfold at_; lsolve).
    assert (Ep : at_ (Pre ++ (P0 ++ [p]) ++ [x] ++ S) (length Pre + length P0) = p) by (unfold at_; lsolve).
    rewrite Ex, Ep. destruct (lt x p) eqn:E.
    + rewrite ins_after_snoc_lt by exact E.
      replace (Pre ++ (P0 ++ [p]) ++ [x] ++ S) with ((Pre ++ P0) ++ [p] ++ [x] ++ S) by (rewrite <- !app_assoc; reflexivity).
      replace (Datatypes.S (length Pre + length P0)) with (length (Pre ++ P0) + 1) by (rewrite app_length; lia).
      replace (length Pre + length P0) with (length (Pre ++ P0)) by (rewrite app_length; lia).
      rewrite swap_adjacent. rewrite app_length.
      replace ((Pre ++ P0) ++ [x] ++ [p] ++ S) with (Pre ++ P0 ++ [x] ++ (p :: S)) by (rewrite <- !app_assoc; reflexivity).
      rewrite IH by exact S1. rewrite <- !app_assoc. reflexivity.
    + rewrite ins_after_all_le; [rewrite <- !app_assoc; reflexivity|].
      intros y Hy. apply in_app_or in Hy. unfold lt_by in *. destruct Hy as [Hy|[<-|[]]]; [|exact E].
      specialize (S3 y p Hy (or_introl eq_refl)). unfold key_le in S3. lia.
Qed.

Lemma bubble_fold Pre S : forall M2 M1,
  fold_left (fun l i => bubble_in k l (length Pre) i) (seq (length Pre + length M1) (length M2))
            (Pre ++ isort M1 ++ M2 ++ S) = Pre ++ isort (M1 ++ M2) ++ S.
Proof.
  induction M2 as [|x M2 IH]; intros M1; cbn [length seq fold_left].
  - rewrite app_nil_r. reflexivity.
  - replace (Pre ++ isort M1 ++ (x :: M2) ++ S) with (Pre ++ isort M1 ++ [x] ++ (M2 ++ S)) by reflexivity.
    rewrite <- (isort_by_length k M1) at 2. rewrite bubble_in_spec by apply isort_by_sorted.
    rewrite <- isort_snoc.
    replace (Datatypes.S (length Pre + length M1)) with (length Pre + length (M1 ++ [x])) by (rewrite app_length; cbn [length]; lia).
    rewrite IH. rewrite <- app_assoc. reflexivity.
Qed.

Lemma bubble_cs_spec Pre M S :
  bubble_cs k (Pre ++ M ++ S) (length Pre) (length Pre + length M) = Pre ++ isort M ++ S.
Proof.
  unfold bubble_cs. destruct M as [|m M]; [cbn [length]; replace (length Pre + 0 - (length Pre + 1)) with 0 by lia; reflexivity|].
  cbn [length]. replace (length Pre + Datatypes.S (length M) - (length Pre + 1)) with (length M) by lia.
  pose proof (bubble_fold Pre S M [m]) as H. cbn [length isort_by fold_right insert_by app] in H. exact H.
Qed.

(* Lower and Upper both search the end of the prefix of a sorted run on which a downward-closed predicate holds *)
Section Partition.
Variable p : Z -> bool.
Hypothesis p_down : forall a b, key_le k a b -> p b = true -> p a = true.

Fixpoint part_loop (l : list Z) (from len fuel : nat) : nat :=
  match fuel with
  | 0 => from
  | Datatypes.S f => if len =? 0 then from
           else let half := len / 2 in let mid := from + half in
                if p (at_ l mid) then part_loop l (mid + 1) (len - half - 1) f else part_loop l from half f
  end.

Lemma part_loop_spec fuel : forall P B S, sorted B -> length B <= fuel ->
  exists B1 B2, B = B1 ++ B2 /\ part_loop (P ++ B ++ S) (length P) (length B) fuel = length P + length B1 /\
    (forall b, In b B1 -> p b = true) /\ (forall b, In b B2 -> p b = false).
Proof.
  induction fuel as [|fuel IH]; intros P B S Hs Hf.
  - destruct B; [|cbn [length] in Hf; lia]. exists [], []. cbn. repeat split; try lia; intros ? [].
  - cbn [part_loop]. destruct (length B =? 0) eqn:E0.
    + destruct B; [|cbn [length] in E0; lia]. exists [], []. cbn [length app]. repeat split; try lia; intros ? [].
    + set (half := length B / 2). assert (Hh : half < length B) by (subst half; apply Nat.div_lt; lia).
      destruct (nth_split B 0%Z Hh) as (Ba & Bb & EB & La). set (m := nth half B 0%Z) in *.
      assert (Em : at_ (P ++ B ++ S) (length P + half) = m).
      { apply at_part. exact Hh. }
      rewrite Em. rewrite EB in Hs. apply sorted_app in Hs. destruct Hs as (Sa & Sb & Sab).
      apply sorted_cons_inv in Sb. destruct Sb as [Sb Smb].
      assert (Lb : length Bb = length B - half - 1) by (rewrite EB at 1; rewrite app_length; cbn [length]; lia).
      destruct (p m) eqn:E.
      * destruct (IH (P ++ Ba ++ [m]) Bb S Sb ltac:(lia)) as (B1 & B2 & E1 & E2 & E3 & E4).
        exists (Ba ++ m :: B1), B2. split; [rewrite EB, E1, <- app_assoc; reflexivity|]. split.
        -- replace (length P + half + 1) with (length (P ++ Ba ++ [m])) by (rewrite !app_length; cbn [length]; lia).
           rewrite <- Lb. replace (P ++ B ++ S) with ((P ++ Ba ++ [m]) ++ Bb ++ S) by (rewrite EB, <- !app_assoc; reflexivity).
           rewrite E2. rewrite !app_length. cbn [length]. lia.
        -- split; [|exact E4]. intros b Hb. apply in_app_or in Hb. destruct Hb as [Hb|[<-|Hb]]; [|exact E|apply E3; exact Hb].
           apply (p_down b m); [apply Sab; [exact Hb|left; reflexivity]|exact E].
      * destruct (IH P Ba (m :: Bb ++ S) Sa ltac:(lia)) as (B1 & B2 & E1 & E2 & E3 & E4).
        exists B1, (B2 ++ m :: Bb). split; [rewrite EB, E1, <- app_assoc; reflexivity|]. split.
        -- rewrite <- La. replace (P ++ B ++ S) with (P ++ Ba ++ m :: Bb ++ S) by (rewrite EB, <- !app_assoc; reflexivity).
           exact E2.
        -- split; [exact E3|]. intros b Hb. apply in_app_or in Hb. destruct Hb as [Hb|[<-|Hb]]; [apply E4; exact Hb|exact E|].
           destruct (p b) eqn:Eb; [|reflexivity]. rewrite (p_down m b (Smb b Hb) Eb) in E. discriminate.
Qed.

Lemma part_loop_range P B S from to : from = length P -> to = from + length B -> sorted B ->
  exists B1 B2, B = B1 ++ B2 /\
    (if from <? to then part_loop (P ++ B ++ S) from (to - from) (to - from) else from) = from + length B1 /\
    (forall b, In b B1 -> p b = true) /\ (forall b, In b B2 -> p b = false).
Proof.
  intros -> -> Hs. destruct (length P <? length P + length B) eqn:E.
  - replace (length P + length B - length P) with (length B) by lia. apply part_loop_spec; [assumption|lia].
  - destruct B; [|cbn [length] in E; lia]. exists [], []. cbn [length app]. repeat split; try lia; intros ? [].
Qed.
End Partition.

Lemma lower_cs_spec x P B S from to : from = length P -> to = from + length B -> sorted B ->
  exists B1 B2, B = B1 ++ B2 /\ lower_cs k (P ++ B ++ S) from to x = from + length B1 /\
    (forall b, In b B1 -> lt b x = true) /\ (forall b, In b B2 -> lt b x = false).
Proof.
  intros Hf Ht Hs.
  assert (L : forall l from len fuel, lower_loop k l x from len fuel = part_loop (fun y => lt y x) l from len fuel).
  { intros l f len fuel. revert f len. induction fuel as [|fuel IH]; intros f len; cbn [lower_loop part_loop]; [reflexivity|].
    rewrite !IH. reflexivity. }
  unfold lower_cs. rewrite L. apply part_loop_range; [|assumption..].
  intros a b Hab. unfold key_le, lt_by in *. lia.
Qed.

Lemma upper_cs_spec x P A S from to : from = length P -> to = from + length A -> sorted A ->
  exists A1 A2, A = A1 ++ A2 /\ upper_cs k (P ++ A ++ S) from to x = from + length A1 /\
    (forall a, In a A1 -> lt x a = false) /\ (forall a, In a A2 -> lt x a = true).
Proof.
  intros Hf Ht Hs.
  assert (L : forall l from len fuel, upper_loop k l x from len fuel = part_loop (fun y => negb (lt x y)) l from len fuel).
  { intros l f len fuel. revert f len. induction fuel as [|fuel IH]; intros f len; cbn [upper_loop part_loop]; [reflexivity|].
    rewrite !IH. destruct (lt x (at_ l (f + len / 2))); reflexivity. }
  unfold upper_cs. rewrite L.
  assert (D : forall a b, key_le k a b -> negb (lt x b) = true -> negb (lt x a) = true)
    by (intros a b Hab; unfold key_le, lt_by in *; lia).
  destruct (part_loop_range _ D P A S from to Hf Ht Hs) as (A1 & A2 & E1 & E2 & E3 & E4).
  exists A1, A2. split; [exact E1|]. split; [exact E2|].
  split; intros a Ha; [apply negb_true_iff, E3|apply negb_false_iff, E4]; exact Ha.
Qed.

Lemma smerge_length A : forall B, length (smerge A B) = length A + length B.
Proof.
  induction A as [|a A IHA]; intros B; [reflexivity|].
  induction B as [|b B IHB]; [rewrite smerge_nil_r; cbn [length]; lia|].
  rewrite smerge_cons. destruct (lt b a); cbn [length]; [rewrite IHB|rewrite IHA]; cbn [length]; lia.
Qed.

Ltac reassoc := repeat rewrite <- app_assoc; cbn [app]; reflexivity.
Ltac len := repeat rewrite app_length; cbn [length] in *; rewrite ?smerge_length; try lia.

Lemma merge_cs_spec fuel : forall P A B S from pivot to len1 len2,
  from = length P -> len1 = length A -> len2 = length B -> pivot = from + len1 -> to = pivot + len2 ->
  sorted A -> sorted B -> len1 + len2 <= fuel ->
  merge_cs k fuel (P ++ A ++ B ++ S) from pivot to len1 len2 = P ++ smerge A B ++ S.
Proof.
  induction fuel as [|fuel IH]; intros P A B S from pivot to len1 len2 Hf H1 H2 Hp Ht SA SB Hfu.
  - destruct A; [|cbn [length] in *; lia]. destruct B; [|cbn [length] in *; lia]. reflexivity.
  - cbn [merge_cs]. destruct ((len1 =? 0) || (len2 =? 0)) eqn:E0.
    { destruct A as [|a A]; [reflexivity|]. destruct B as [|b B]; [rewrite smerge_nil_r; reflexivity|]. cbn [length] in *. lia. }
    destruct (len1 + len2 =? 2) eqn:E2.
    { destruct A as [|a [|a' A]]; cbn [length] in *; try lia. destruct B as [|b [|b' B]]; cbn [length] in *; try lia.
      assert (Eb : at_ (P ++ [a] ++ [b] ++ S) pivot = b) by (unfold at_; subst; lsolve).
      assert (Ea : at_ (P ++ [a] ++ [b] ++ S) from = a) by (unfold at_; subst; lsolve).
      rewrite Eb, Ea. rewrite smerge_cons, smerge_nil_r. cbn [smerge]. destruct (lt b a); [|reflexivity].
      subst. rewrite swap_adjacent. reflexivity. }
    (* both ways of cutting split A = A1 ++ A2 and B = B1 ++ B2 so that A1, B1 come before A2, B2 in the merged
       order; what follows is the same: rotate A2 and B1 past each other, merge A1 with B1 and A2 with B2 *)
    assert (K : forall A1 A2 B1 B2 fcut scut, A = A1 ++ A2 -> B = B1 ++ B2 ->
              fcut = from + length A1 -> scut = pivot + length B1 ->
              (forall a1 b2, In a1 A1 -> In b2 B2 -> lt b2 a1 = false) ->
              (forall b1 a2, In b1 B1 -> In a2 A2 -> lt b1 a2 = true) ->
              length A1 + length B1 <= fuel -> length A2 + length B2 <= fuel ->
              merge_cs k fuel
                (merge_cs k fuel (rotate_cs (P ++ A ++ B ++ S) fcut pivot scut) from fcut (fcut + (scut - pivot))
                   (fcut - from) (scut - pivot))
                (fcut + (scut - pivot)) scut to (len1 - (fcut - from)) (len2 - (scut - pivot)) =
              P ++ smerge A B ++ S).
    { intros A1 A2 B1 B2 fcut scut EA EB -> -> C1 C2 F1 F2. subst A B.
      apply sorted_app in SA. destruct SA as (SA1 & SA2 & _). apply sorted_app in SB. destruct SB as (SB1 & SB2 & _).
      rewrite app_length in H1, H2.
      replace (from + length A1 - from) with (length A1) by lia. replace (pivot + length B1 - pivot) with (length B1) by lia.
      replace (P ++ (A1 ++ A2) ++ (B1 ++ B2) ++ S) with ((P ++ A1) ++ A2 ++ B1 ++ (B2 ++ S)) by reassoc.
      rewrite (rotate_cs_ok (P ++ A1) A2 B1 (B2 ++ S)) by len.
      replace ((P ++ A1) ++ B1 ++ A2 ++ B2 ++ S) with (P ++ A1 ++ B1 ++ (A2 ++ B2 ++ S)) by reassoc.
      rewrite (IH P A1 B1 (A2 ++ B2 ++ S)) by (assumption || len).
      replace (P ++ smerge A1 B1 ++ A2 ++ B2 ++ S) with ((P ++ smerge A1 B1) ++ A2 ++ B2 ++ S) by reassoc.
      rewrite (IH (P ++ smerge A1 B1) A2 B2 S) by (assumption || len).
      rewrite (smerge_cut A1 B1 A2 B2 C1 C2). reassoc. }
    destruct (len2 <? len1) eqn:E3.
    + (* cut the first run in the middle, find the matching cut of the second run with Lower *)
      set (len11 := len1 / 2). assert (H11 : 0 < len11 < len1) by (subst len11; split; [apply Nat.div_str_pos; lia|apply Nat.div_lt; lia]).
      assert (HA : A = firstn len11 A ++ skipn len11 A) by (symmetry; apply firstn_skipn).
      set (A1 := firstn len11 A) in *. set (A2 := skipn len11 A) in *.
      assert (L1 : length A1 = len11) by (subst A1; rewrite firstn_length; lia).
      assert (L2 : length A2 = len1 - len11) by (subst A2; rewrite skipn_length; lia).
      destruct A2 as [|x A2'] eqn:EA2; [cbn [length] in L2; lia|].
      assert (Ex : at_ (P ++ A ++ B ++ S) (from + len11) = x).
      { subst from. rewrite at_part by lia. rewrite HA, <- L1. apply nth_middle. }
      rewrite Ex.
      destruct (lower_cs_spec x (P ++ A) B S pivot to ltac:(len) ltac:(lia) SB) as (B1 & B2 & EB & EL & Hb1 & Hb2).
      assert (LB : length B = length B1 + length B2) by (rewrite EB; len).
      rewrite <- app_assoc in EL. rewrite EL.
      rewrite HA in SA. apply sorted_app in SA. destruct SA as (_ & SA2 & SA12).
      apply (K A1 (x :: A2') B1 B2 (from + len11) (pivot + length B1) HA EB); try (cbn [length] in *; lia).
      * intros a1 b2 Ha Hb. specialize (SA12 a1 x Ha (or_introl eq_refl)). specialize (Hb2 b2 Hb).
        unfold key_le, lt_by in *. lia.
      * intros b1 a2 Hb Ha. specialize (Hb1 b1 Hb). apply sorted_cons_inv in SA2. destruct SA2 as [_ SA2].
        destruct Ha as [<-|Ha]; [exact Hb1|]. specialize (SA2 a2 Ha). unfold key_le, lt_by in *. lia.
    + (* cut the second run in the middle, find the matching cut of the first run with Upper *)
      set (len22 := len2 / 2). assert (H22 : 0 < len22 < len2) by (subst len22; split; [apply Nat.div_str_pos; lia|apply Nat.div_lt; lia]).
      assert (HB : B = firstn len22 B ++ skipn len22 B) by (symmetry; apply firstn_skipn).
      set (B1 := firstn len22 B) in *. set (B2 := skipn len22 B) in *.
      assert (L1 : length B1 = len22) by (subst B1; rewrite firstn_length; lia).
      assert (L2 : length B2 = len2 - len22) by (subst B2; rewrite skipn_length; lia).
      destruct B2 as [|x B2'] eqn:EB2; [cbn [length] in L2; lia|].
      assert (Ex : at_ (P ++ A ++ B ++ S) (pivot + len22) = x).
      { subst pivot from len1. rewrite <- app_length, app_assoc, at_part by lia. rewrite HB, <- L1. apply nth_middle. }
      rewrite Ex.
      destruct (upper_cs_spec x P A (B ++ S) from pivot Hf ltac:(lia) SA) as (A1 & A2 & EA & EU & Ha1 & Ha2).
      assert (LA : length A = length A1 + length A2) by (rewrite EA; len).
      rewrite EU.
      rewrite HB in SB. apply sorted_app in SB. destruct SB as (_ & SB2 & SB12).
      apply (K A1 A2 B1 (x :: B2') (from + length A1) (pivot + len22) EA HB); try (cbn [length] in *; lia).
      * intros a1 b2 Ha Hb. specialize (Ha1 a1 Ha). apply sorted_cons_inv in SB2. destruct SB2 as [_ SB2].
        destruct Hb as [<-|Hb]; [exact Ha1|]. specialize (SB2 b2 Hb). unfold key_le, lt_by in *. lia.
      * intros b1 a2 Hb Ha. specialize (SB12 b1 x Hb (or_introl eq_refl)). specialize (Ha2 a2 Ha).
        unfold key_le, lt_by in *. lia.
Qed.

Lemma sort_rec_spec fuel : forall P M S from to,
  from = length P -> to = from + length M -> 0 < length M <= fuel ->
  sort_rec k fuel (P ++ M ++ S) from to = P ++ isort M ++ S.
Proof.
  induction fuel as [|fuel IH]; intros P M S from to Hf Ht Hl; [lia|].
  cbn [sort_rec]. destruct (to <? from + 12) eqn:E.
  - subst. apply bubble_cs_spec.
  - set (h := length M / 2). assert (Hh : 0 < h < length M) by (subst h; split; [apply Nat.div_str_pos; lia|apply Nat.div_lt; lia]).
    assert (Em : (from + to) / 2 = from + h).
    { subst to h. replace (from + (from + length M)) with (length M + from * 2) by lia. rewrite Nat.div_add by lia. lia. }
    rewrite Em.
    assert (HM : M = firstn h M ++ skipn h M) by (symmetry; apply firstn_skipn).
    set (M1 := firstn h M) in *. set (M2 := skipn h M) in *.
    assert (L1 : length M1 = h) by (subst M1; rewrite firstn_length; lia).
    assert (L2 : length M2 = length M - h) by (subst M2; rewrite skipn_length; lia).
    replace (P ++ M ++ S) with (P ++ M1 ++ (M2 ++ S)) by (rewrite HM; reassoc).
    rewrite (IH P M1 (M2 ++ S)) by lia.
    replace (P ++ isort M1 ++ M2 ++ S) with ((P ++ isort M1) ++ M2 ++ S) by reassoc.
    rewrite (IH (P ++ isort M1) M2 S) by (repeat rewrite app_length; rewrite ?isort_by_length; lia).
    replace ((P ++ isort M1) ++ isort M2 ++ S) with (P ++ isort M1 ++ isort M2 ++ S) by reassoc.
    rewrite (merge_cs_spec (to - from) P (isort M1) (isort M2) S) by
      (try apply isort_by_sorted; rewrite ?isort_by_length; lia).
    rewrite smerge_isort, <- HM. reflexivity.
Qed.

Theorem sort_cs_spec l from to :
  sort_cs k l from to =
  (let to' := Nat.min to (length l) in
   if from <? to' then firstn from l ++ isort (firstn (to' - from) (skipn from l)) ++ skipn to' l else l).
Proof.
  unfold sort_cs. cbv zeta. set (to' := Nat.min to (length l)). destruct (from <? to') eqn:E; [|reflexivity].
  assert (Hl : l = firstn from l ++ firstn (to' - from) (skipn from l) ++ skipn to' l).
  { rewrite <- (firstn_skipn from l) at 1. f_equal. rewrite <- (firstn_skipn (to' - from) (skipn from l)) at 1. f_equal.
    rewrite skipn_skipn'. f_equal. lia. }
  rewrite Hl at 1. apply sort_rec_spec; [rewrite firstn_length; subst to'; lia| |].
  - rewrite firstn_length, skipn_length. subst to'. lia.
  - rewrite firstn_length, skipn_length. subst to'. lia.
Qed.

End Stable.

Theorem sort_cs_is_l0_sort bk l from to : sort_cs (sort_key bk) l from to = l0_sort bk l from to.
Proof. unfold l0_sort. apply sort_cs_spec. Qed.

Lemma sort_items_spec sq ow q bk f t : inv ow sq q ->
  inv ow sq (sort_items q bk f t) /\ abs (sort_items q bk f t) = l0_sort bk (abs q) f t.
Proof.
  intros I. unfold sort_items. rewrite sort_cs_is_l0_sort.
  apply write_all_spec; [assumption|]. rewrite l0_sort_length, abs_length. reflexivity.
Qed.
