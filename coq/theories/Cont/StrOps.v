(* C17 -- LIM and the predicates on operands (src_ok, srep, carg_ok, osrc_ok); specifications of the level-1 mutators and
   constructors: each preserves the invariant and has the level-0 effect. *)
From Coq Require Import List NArith ZArith Bool Lia.
From Muscle Require Import Cont.StrL0 Cont.StrModel Cont.StrSpec Cont.StrLemmas Cont.StrL0Facts Cont.StrReplace Cont.StrGrow Cont.StrCore.
Import ListNotations.
Local Open Scope N_scope.

Definition LIM : N := 1073741824.    (* 2^30: buffer requests up to this size always succeed *)

Lemma u32_small x : x < 4294967296 -> u32 x = x.
Proof. intros H. unfold u32. now apply N.mod_small. Qed.
Lemma l0_sub_from l k : lenN l < LIM -> l0_sub l k NOLIMIT = dropN k l.
Proof.
  intros H. unfold l0_sub. rewrite N.min_r by (unfold LIM, NOLIMIT in *; lia).
  destruct (k <? lenN l) eqn:E.
  - apply takeN_all. rewrite lenN_dropN. lia.
  - apply N.ltb_ge in E. symmetry. now apply dropN_all.
Qed.
Lemma l0_sub_all' l : lenN l < LIM -> l0_sub l 0 NOLIMIT = l.
Proof. intros H. now rewrite l0_sub_from, dropN_0. Qed.

Section Ops.
Context {M TH PG OV jk : N} {P : str_params M TH PG OV jk}.
Local Set Default Proof Using "P".

Local Notation slen := (slen M).
Local Notation cap := (cap M).
Local Notation abs := (abs M).
Local Notation inv := (inv M).
Local Notation rep := (rep M).
Local Notation commit := (commit M).
Local Notation ensure := (ensure M TH PG OV jk true).
Local Notation empty1 := (empty1 M jk).
Local Notation clear := (clear M).
Local Notation set_cstr := (set_cstr M TH PG OV jk true).
Local Notation cregion := (cregion M).
Local Notation set_from := (set_from M TH PG OV jk true).
Local Notation append_s := (append_s M TH PG OV jk true).
Local Notation append_c := (append_c M TH PG OV jk true).
Local Notation append_ch := (append_ch M TH PG OV jk true).
Local Notation clear_and_flush := (clear_and_flush M jk).
Local Notation osrc := (osrc M).
Local Notation insert_aux := (insert_aux M TH PG OV jk true).
Local Notation insert_chars := (insert_chars M TH PG OV jk true).
Local Notation prealloc := (prealloc M TH PG OV jk true).
Local Notation shrink_to_fit := (shrink_to_fit M TH PG OV jk true).
Local Notation trunc_chars := (trunc_chars M).
Local Notation trunc_to := (trunc_to M).
Local Notation flatten1 := (flatten1 M).
Local Notation unflatten1 := (unflatten1 M TH PG OV jk true).
Local Notation ctor_copy := (ctor_copy M TH PG OV jk true).
Local Notation ctor_sub := (ctor_sub M TH PG OV jk true).
Local Notation ctor_copy_pre := (ctor_copy_pre M TH PG OV jk true).
Local Notation ctor_pre_lit := (ctor_pre_lit M TH PG OV jk true).
Local Notation cut := (cut M).
Local Notation map_content := (map_content M).
Local Notation reverse1 := (reverse1 M).
Local Notation replace_ch1 := (replace_ch1 M).


(* a terminated source: what a `const String &` callee may rely on *)
Definition src_ok (o : src) : Prop := snd o < lenN (fst o) /\ nthN (snd o) (fst o) = 0.

Lemma src_ok_lit l : src_ok (src_lit l).
Proof.
  unfold src_ok, src_lit. cbn [fst snd]. rewrite lenN_app, lenN_cons, lenN_nil. split; [lia|].
  rewrite nthN_app_r by lia. now rewrite N.sub_diag.
Qed.
Lemma src_ok_of s : inv s -> src_ok (src_of M s).
Proof. intros I. unfold src_ok, src_of. cbn [fst snd]. rewrite (inv_len _ I). split; [apply (inv_lt _ I)|apply (inv_nul _ I)]. Qed.
Lemma src_bytes_lit l : src_bytes (src_lit l) = l.
Proof. unfold src_bytes, src_lit. cbn [fst snd]. apply takeN_app_exact. Qed.
Lemma src_bytes_of s : src_bytes (src_of M s) = abs s.
Proof. reflexivity. Qed.
Lemma lenN_src_bytes o : src_ok o -> lenN (src_bytes o) = snd o.
Proof. intros [H _]. unfold src_bytes. rewrite lenN_takeN. lia. Qed.
Lemma src_take_nul o : src_ok o -> takeN (snd o + 1) (fst o) = src_bytes o ++ [0].
Proof.
  intros [H Z]. unfold src_bytes.
  rewrite <- (takeN_dropN (snd o) (fst o)) at 1.
  rewrite (dropN_cons_nth (fst o) (snd o) H), Z.
  rewrite takeN_app_ge by (rewrite lenN_takeN; lia). rewrite lenN_takeN.
  replace (snd o + 1 - N.min (snd o) (lenN (fst o))) with (0 + 1) by lia.
  rewrite takeN_S, takeN_0. reflexivity.
Qed.
Lemma take_with_nul s : inv s -> takeN (slen s + 1) (buf s) = abs s ++ [0].
Proof. intros I. apply (src_take_nul (src_of M s)). now apply src_ok_of. Qed.

Lemma abs_of_prefix s s' : slen s' = slen s -> takeN (slen s + 1) (buf s') = takeN (slen s + 1) (buf s) -> abs s' = abs s.
Proof.
  intros E H. unfold StrModel.abs. rewrite E.
  rewrite <- (takeN_takeN_le (slen s) (slen s + 1) (buf s')) by lia.
  rewrite <- (takeN_takeN_le (slen s) (slen s + 1) (buf s)) by lia. now rewrite H.
Qed.

(* requests within LIM succeed; with the value retained, the contents are kept *)
Lemma ensure_grow_ok s req :
  inv s -> req <= LIM ->
  exists s', ensure s req true false = (StOk, s') /\ inv s' /\ req <= cap s' /\ slen s' = slen s /\
             abs s' = abs s /\ takeN (slen s + 1) (buf s') = takeN (slen s + 1) (buf s).
Proof.
  intros I R. pose proof (ensure_spec s req true I) as G. pose proof (ensure_ok s req true I R) as K.
  destruct (ensure s req true false) as [e s']. cbn [fst] in K. subst e.
  destruct G as (G1 & G2 & G3). destruct (G3 eq_refl) as (G4 & G5). exists s'. splits; trivial. now apply abs_of_prefix.
Qed.
(* without retaining: granted within LIM, and trivially within the present capacity (an operand inside the subject) *)
Lemma ensure_noretain_ok s req :
  inv s -> req <= LIM \/ req <= cap s ->
  exists s', ensure s req false false = (StOk, s') /\ inv s' /\ req <= cap s' /\ (req <= cap s -> s' = s).
Proof.
  intros I R. destruct (N.le_gt_cases req (cap s)) as [H|H].
  { exists s. rewrite ensure_enough by trivial. now splits. }
  destruct R as [R|R]; [|lia].
  pose proof (ensure_spec s req false I) as G. pose proof (ensure_ok s req false I R) as K.
  destruct (ensure s req false false) as [e s']. cbn [fst] in K. subst e. exists s'. splits; try apply G; trivial. lia.
Qed.

(* write (data ++ NUL) at offset i <= Length() and set the length to i + |data| *)
Lemma commit_at s i data :
  inv s -> i <= slen s -> i + lenN data + 1 <= cap s ->
  rep (commit s (blit (buf s) i (data ++ [0])) (i + lenN data)) (takeN i (abs s) ++ data).
Proof.
  intros I Hi C. pose proof (inv_len _ I) as Ln. pose proof (inv_lt _ I) as Lt.
  assert (Ld : lenN (data ++ [0]) = lenN data + 1) by (rewrite lenN_app, lenN_cons, lenN_nil; lia).
  eapply rep_eq; [apply commit_spec; trivial|].
  - rewrite lenN_blit; lia.
  - lia.
  - rewrite nthN_blit_in by lia. replace (i + lenN data - i) with (lenN data) by lia.
    rewrite nthN_app_r by lia. now rewrite N.sub_diag.
  - rewrite <- (takeN_takeN_le (i + lenN data) (i + lenN (data ++ [0]))) by lia.
    rewrite takeN_blit_cover by lia.
    rewrite takeN_app_ge by (rewrite lenN_takeN; lia). rewrite lenN_takeN. f_equal.
    + unfold StrModel.abs. now rewrite takeN_takeN_le.
    + replace (i + lenN data - N.min i (lenN (buf s))) with (lenN data) by lia. apply takeN_app_exact.
Qed.
(* overwrite the whole value: memmove(b, data, n); b[n] = 0; SetLength(n) *)
Lemma commit_set s data n :
  inv s -> lenN data = n -> n < cap s -> rep (commit s (upd (blit (buf s) 0 data) n 0) n) data.
Proof.
  intros I <- C. unfold upd.
  assert (E : blit (blit (buf s) 0 data) (lenN data) [0] = blit (buf s) 0 (data ++ [0])).
  { apply (blit_blit_adjacent (buf s) 0 data [0]). rewrite (inv_len _ I). lia. }
  rewrite E.
  eapply rep_eq; [apply (commit_at s 0 data I); lia|]. now rewrite takeN_0.
Qed.
(* append: memmove(b+len, data ++ NUL); SetLength(len + |data|) *)
Lemma commit_append s data :
  inv s -> slen s + lenN data + 1 <= cap s ->
  rep (commit s (blit (buf s) (slen s) (data ++ [0])) (slen s + lenN data)) (abs s ++ data).
Proof.
  intros I C. eapply rep_eq; [apply commit_at; trivial; lia|]. rewrite takeN_all; trivial. rewrite (lenN_abs s I). lia.
Qed.
Lemma trunc_spec s l : inv s -> l <= slen s -> rep (commit s (upd (buf s) l 0) l) (takeN l (abs s)).
Proof.
  intros I L. pose proof (inv_lt _ I). pose proof (commit_at s l [] I L) as X. cbn [app lenN length N.of_nat] in X.
  rewrite N.add_0_r, app_nil_r in X. apply X. lia.
Qed.

Lemma cap_lt s : inv s -> cap s < 2147483648.
Proof. intros I. pose proof M_le. destruct s; cbn [StrModel.cap]; [lia|]. destruct I as (_ & _ & _ & I4). lia. Qed.


Lemma clear_spec s : inv s -> rep (clear s) [].
Proof.
  intros I. unfold StrModel.clear. pose proof (inv_lt _ I).
  rewrite <- (blit_nil (buf s) 0) at 1. apply commit_set; trivial. lia.
Qed.

Lemma cstr_region_self s k : inv s -> nulfree (abs s) -> k <= slen s -> cstr (dropN k (buf s)) = dropN k (abs s).
Proof.
  intros I F K. pose proof (inv_len _ I) as Ln. pose proof (inv_lt _ I) as Lt.
  assert (E : takeN (slen s - k) (dropN k (buf s)) = dropN k (abs s)).
  { rewrite takeN_dropN_comm. unfold StrModel.abs. do 2 f_equal. lia. }
  rewrite (cstr_of_terminated (dropN k (buf s)) (slen s - k)).
  - exact E.
  - rewrite lenN_dropN. lia.
  - rewrite nthN_dropN. replace (slen s - k + k) with (slen s) by lia. apply (inv_nul _ I).
  - rewrite E. now apply nulfree_dropN.
Qed.

Definition carg_ok (c : carg) : Prop := match c with CLit l => nulfree l /\ lenN l < LIM | _ => True end.

(* only a pointer into the subject's own array makes the subject's value matter *)
Lemma cstr_cregion s c : inv s -> (clocal s c = true -> nulfree (abs s)) -> carg_ok c ->
  match cregion s c with None => c = CNull | Some r => cstr r = clit_of (abs s) c end.
Proof.
  intros I F C. destruct c as [|l|off]; cbn [StrModel.cregion clit_of]; trivial.
  - destruct C as [C _]. rewrite cstr_nulfree_app; trivial.
  - rewrite cstr_region_self by (try apply F; trivial; lia).
    rewrite <- (lenN_abs s I). apply dropN_min_len.
Qed.

Lemma set_cstr_spec s c m :
  inv s -> (clocal s c = true -> nulfree (abs s)) -> carg_ok c ->
  exists s', set_cstr s c m = (StOk, s') /\ inv s' /\ abs s' = takeN m (clit_of (abs s) c).
Proof.
  intros I F C. unfold StrModel.set_cstr.
  pose proof (cstr_cregion s c I F C) as R.
  destruct (cregion s c) as [r|] eqn:ER.
  2:{ subst c. exists (clear s). destruct (clear_spec s I) as (A1 & A2). splits; trivial.
      rewrite A2. cbn [clit_of]. now rewrite takeN_nil. }
  rewrite R. set (x := clit_of (abs s) c) in *.
  destruct (0 <? N.min m (lenN x)) eqn:E0.
  2:{ apply N.ltb_ge in E0. exists (clear s). destruct (clear_spec s I) as (A1 & A2). splits; trivial.
      rewrite A2. rewrite <- takeN_min_len. replace (N.min m (lenN x)) with 0 by lia. now rewrite takeN_0. }
  apply N.ltb_lt in E0. set (n := N.min m (lenN x)) in *.
  (* the request: n + 1 bytes *)
  assert (Hx : lenN x < LIM \/ (exists off, c = CSelf off)).
  { destruct c as [|l|off]; cbn [clit_of] in x; [discriminate ER| left; unfold x; apply C | right; now exists off]. }
  assert (Hn : n + 1 < 4294967296).
  { destruct Hx as [Hx|[off ->]]; [unfold LIM in Hx; lia|].
    unfold n, x. cbn [clit_of]. rewrite lenN_dropN, (lenN_abs s I).
    pose proof (inv_lt _ I). pose proof (cap_lt s I). lia. }
  rewrite (u32_small _ Hn).
  assert (Hd : takeN n r = takeN m x).
  { rewrite takeN_cstr by (rewrite R; unfold n; lia). rewrite R. apply takeN_min_len. }
  destruct (ensure_noretain_ok s (n + 1) I) as (s1 & E1 & I1 & C1 & _).
  { destruct Hx as [Hx|[off ->]]; [left; unfold LIM in *; lia|right].
    unfold n, x. cbn [clit_of]. rewrite lenN_dropN, (lenN_abs s I). pose proof (inv_lt _ I). lia. }
  rewrite E1. eexists. split; [reflexivity|].
  eapply rep_eq; [apply commit_set; trivial; [now rewrite Hd, lenN_takeN|lia]|exact Hd].
Qed.

(* the source operand: a separate terminated String of bounded size, or the subject itself *)
Definition osrc_ok (o : option src) : Prop := match o with Some x => src_ok x /\ snd x < LIM | None => True end.

Lemma set_from_spec s o first after :
  inv s -> osrc_ok o ->
  exists s', set_from s o first after = (StOk, s') /\ inv s' /\
             abs s' = l0_sub (src_bytes (osrc s o)) first after.
Proof.
  intros I O. unfold StrModel.set_from.
  assert (SO : src_ok (osrc s o)) by (destruct o as [x|]; [apply O|now apply src_ok_of]).
  set (ol := snd (osrc s o)).
  assert (Lb : lenN (src_bytes (osrc s o)) = ol) by now apply lenN_src_bytes.
  unfold l0_sub. rewrite Lb.
  set (a := N.min after ol).
  destruct (first <? a) eqn:E1; cbn [N.ltb].
  2:{ replace (0 <? 0) with false by reflexivity.
      exists (clear_and_flush s). destruct (inv_clear_and_flush s I) as (A1 & _ & A3 & _). splits; trivial. }
  apply N.ltb_lt in E1.
  rewrite (ltb_t 0 (a - first)) by lia.
  set (len := a - first) in *.
  assert (Bl : len + 1 < 4294967296 /\ (o <> None -> len + 1 <= LIM) /\ (o = None -> len + 1 <= cap s)).
  { destruct o as [x|].
    - destruct O as [_ O2]. cbn [StrModel.osrc] in ol. unfold LIM in *. splits; [lia|intros; lia|discriminate].
    - cbn [StrModel.osrc src_of snd] in ol. pose proof (inv_lt _ I). pose proof (cap_lt s I).
      splits; [lia|congruence|intros; lia]. }
  destruct Bl as (B1 & B2 & B3). rewrite (u32_small _ B1).
  destruct (ensure_noretain_ok s (len + 1) I) as (s1 & E & I1 & C1 & Same).
  { destruct o; [left; now apply B2|right; now apply B3]. }
  assert (D : takeN len (dropN first (fst (osrc s1 o))) = takeN len (dropN first (src_bytes (osrc s o)))).
  { assert (Eo : fst (osrc s1 o) = fst (osrc s o)) by (destruct o; [reflexivity|now rewrite (Same (B3 eq_refl))]).
    rewrite Eo. unfold src_bytes. rewrite !takeN_dropN_comm. f_equal. rewrite takeN_takeN_le; trivial. unfold len, a, ol. lia. }
  rewrite E. eexists. split; [reflexivity|].
  eapply rep_eq; [apply commit_set; trivial; [rewrite D, lenN_takeN, lenN_dropN, Lb|]; lia|exact D].
Qed.

Lemma append_s_spec s o :
  inv s -> osrc_ok o -> slen s + snd (osrc s o) + 1 <= LIM ->
  inv (append_s s o) /\ abs (append_s s o) = abs s ++ src_bytes (osrc s o).
Proof.
  intros I O B. unfold StrModel.append_s.
  assert (SO : src_ok (osrc s o)) by (destruct o as [x|]; [apply O|now apply src_ok_of]).
  set (ol := snd (osrc s o)) in *.
  assert (Lb : lenN (src_bytes (osrc s o)) = ol) by now apply lenN_src_bytes.
  destruct (0 <? ol) eqn:E0.
  2:{ apply N.ltb_ge in E0. split; [exact I|]. rewrite (lenN_0 (src_bytes (osrc s o))) by lia. now rewrite app_nil_r. }
  rewrite u32_small by (unfold LIM in B; lia).
  destruct (ensure_grow_ok s (slen s + ol + 1) I B) as (s1 & E & I1 & C1 & L1 & A1 & P1).
  rewrite E.
  assert (D : takeN (ol + 1) (fst (osrc s1 o)) = src_bytes (osrc s o) ++ [0]).
  { destruct o as [x|]; cbn [StrModel.osrc].
    - apply (src_take_nul x). apply O.
    - cbn [StrModel.osrc src_of snd] in ol. cbn [src_of fst]. unfold ol. rewrite P1.
      rewrite (take_with_nul s I). reflexivity. }
  rewrite D. rewrite <- Lb. rewrite <- A1.
  destruct (commit_append s1 (src_bytes (osrc s o)) I1) as (X1 & X2).
  - rewrite Lb. lia.
  - split; trivial.
Qed.

Lemma append_c_spec s c :
  inv s -> nulfree (abs s) -> carg_ok c -> slen s + lenN (clit_of (abs s) c) + 1 <= LIM ->
  inv (append_c s c) /\ abs (append_c s c) = abs s ++ clit_of (abs s) c.
Proof.
  intros I F C B. unfold StrModel.append_c.
  pose proof (cstr_cregion s c I (fun _ => F) C) as R.
  destruct (cregion s c) as [r|] eqn:ER.
  2:{ subst c. cbn [clit_of]. split; [exact I|now rewrite app_nil_r]. }
  rewrite R. set (x := clit_of (abs s) c) in *.
  destruct (0 <? lenN x) eqn:E0.
  2:{ apply N.ltb_ge in E0. split; [exact I|]. rewrite (lenN_0 x) by lia. now rewrite app_nil_r. }
  destruct c as [|l|off]; [discriminate ER| |]; cbn [clocal].
  - cbn [StrModel.cregion] in ER. inversion ER; subst r. cbn [clit_of] in x.
    rewrite u32_small by (unfold LIM in B; lia).
    destruct (ensure_grow_ok s (slen s + lenN x + 1) I B) as (s1 & E & I1 & C1 & L1 & A1 & P1).
    rewrite E. unfold x. rewrite takeN_all by (rewrite lenN_app, lenN_cons, lenN_nil; lia).
    rewrite L1. rewrite <- A1. rewrite <- L1.
    destruct (commit_append s1 l I1) as (X1 & X2); [fold x; lia|]. split; trivial.
  - destruct (append_s_spec s (Some (src_lit x)) I) as (X1 & X2).
    + split; [apply src_ok_lit|]. cbn [src_lit snd]. unfold LIM in *. lia.
    + cbn [StrModel.osrc src_lit snd]. exact B.
    + split; [exact X1|]. rewrite X2. cbn [StrModel.osrc]. now rewrite src_bytes_lit.
Qed.

Lemma append_ch_spec s ch :
  inv s -> slen s + 2 <= LIM ->
  inv (append_ch s ch) /\ abs (append_ch s ch) = abs s ++ [ch].
Proof.
  intros I B. unfold StrModel.append_ch.
  rewrite u32_small by (unfold LIM in B; lia).
  destruct (ensure_grow_ok s (slen s + 2) I B) as (s1 & E & I1 & C1 & L1 & A1 & P1).
  rewrite E. rewrite upd_upd_adjacent by (rewrite (inv_len _ I1); lia).
  rewrite <- L1, <- A1.
  destruct (commit_append s1 [ch] I1) as (X1 & X2).
  - rewrite lenN_cons, lenN_nil. lia.
  - split; [exact X1|exact X2].
Qed.

Lemma insert_core s i D :
  inv s -> i <= slen s -> slen s + lenN D + 1 <= cap s ->
  let old := slen s in
  let b := buf s in
  let b1 := blit b (i + lenN D) (takeN (old - i) (dropN i b)) in
  let b2 := blit b1 i D in
  let s' := commit s (upd b2 (old + lenN D) 0) (old + lenN D) in
  inv s' /\ abs s' = takeN i (abs s) ++ D ++ dropN i (abs s).
Proof.
  intros I Hi C old b b1 b2 s'.
  pose proof (inv_len _ I) as Ln. pose proof (inv_lt _ I) as Lt. fold b in Ln. fold old in Lt.
  set (X := takeN (old - i) (dropN i b)).
  assert (LX : lenN X = old - i) by (unfold X; rewrite lenN_takeN, lenN_dropN; lia).
  assert (Lb1 : lenN b1 = cap s) by (unfold b1; fold X; rewrite lenN_blit; lia).
  assert (Lb2 : lenN b2 = cap s) by (unfold b2; rewrite lenN_blit; lia).
  destruct (commit_spec s (upd b2 (old + lenN D) 0) (old + lenN D) I) as (A1 & A3).
  - rewrite lenN_upd; lia.
  - unfold old. lia.
  - apply nthN_upd_same. lia.
  - split; [exact A1|]. fold s' in A3. rewrite A3.
    rewrite takeN_upd_before by lia.
    (* the first old+|D| bytes of b2 *)
    assert (E2 : takeN (i + lenN D) b2 = takeN i b ++ D).
    { unfold b2. rewrite takeN_blit_cover by lia. f_equal. unfold b1. apply takeN_blit_before; lia. }
    assert (E3 : dropN (i + lenN D) b2 = X ++ dropN (i + lenN D + lenN X) b).
    { unfold b2. rewrite dropN_blit_after by lia. unfold b1. fold X. unfold blit.
      rewrite dropN_app_ge by (rewrite lenN_takeN; lia). rewrite lenN_takeN.
      replace (i + lenN D - N.min (i + lenN D) (lenN b)) with 0 by lia. now rewrite dropN_0. }
    rewrite <- (takeN_dropN (i + lenN D) b2). rewrite E2, E3.
    rewrite takeN_app_ge by (rewrite lenN_app, lenN_takeN; lia).
    rewrite lenN_app, lenN_takeN.
    replace (old + lenN D - (N.min i (lenN b) + lenN D)) with (lenN X) by lia.
    rewrite takeN_app_exact. rewrite <- app_assoc. f_equal.
    + unfold StrModel.abs. fold b old. rewrite takeN_takeN_le; trivial.
    + f_equal. unfold X, StrModel.abs. fold b old. rewrite takeN_dropN_comm. do 2 f_equal. lia.
Qed.


(* InsertCharsAux after its early exits *)
Lemma insert_aux_ext s idx r loc n count :
  inv s -> nthN 0 r <> 0 -> n <> 0 -> (loc = false -> n <= lenN r) -> slen s + n * count + 1 <= LIM ->
  exists s', insert_aux s idx (Some r) loc n count = (StOk, s') /\ inv s' /\
             abs s' = l0_insert (abs s) idx (concat (repN (takeN n (if loc then cstr r else r)) count)).
Proof.
  intros I R0 N0 Nr B. unfold StrModel.insert_aux.
  apply N.eqb_neq in R0, N0. rewrite R0, N0. cbn [orb].
  set (d := takeN n (if loc then cstr r else r)).
  (* with [loc] the bytes are first copied into a temporary: either way [takeN n1 r1] is [d] and [n1] its length *)
  assert (X : exists r1 n1, (if loc then (takeN n (cstr r) ++ [0], N.min (lenN (takeN n (cstr r))) n) else (r, n)) = (r1, n1) /\
                            n1 = lenN d /\ takeN n1 r1 = d /\ n1 <= n).
  { unfold d. destruct loc; eexists _, _; (split; [reflexivity|]); rewrite lenN_takeN.
    - replace (N.min (N.min n (lenN (cstr r))) n) with (N.min n (lenN (cstr r))) by lia.
      splits; trivial; [|lia]. rewrite <- (lenN_takeN n (cstr r)). apply takeN_app_exact.
    - specialize (Nr eq_refl). splits; trivial; lia. }
  destruct X as (r1 & n1 & -> & Ln & Ed & Le). rewrite Ed.
  assert (Bc : n1 * count <= n * count) by nia.
  rewrite (leb_f 2147483646 (n1 * count + slen s)) by (unfold LIM in B; lia).
  rewrite u32_small by (unfold LIM in B; lia).
  set (D := concat (repN d count)).
  assert (LD : lenN D = n1 * count) by (unfold D; rewrite lenN_concat_rep; f_equal; lia).
  unfold l0_insert. rewrite (lenN_abs s I).
  destruct (n1 * count =? 0) eqn:E2.
  { apply N.eqb_eq in E2. exists s. splits; trivial. rewrite (lenN_0 D) by lia. cbn [app]. now rewrite takeN_dropN. }
  rewrite u32_small by (unfold LIM in B; lia).
  destruct (ensure_grow_ok s (slen s + n1 * count + 1) I) as (s1 & E & I1 & C1 & L1 & A1 & P1); [lia|].
  rewrite E. eexists. split; [reflexivity|].
  rewrite <- LD. rewrite <- L1, <- A1.
  apply (insert_core s1 (N.min idx (slen s1)) D I1); lia.
Qed.

Lemma insert_chars_spec s idx c m :
  inv s -> nulfree (abs s) -> carg_ok c -> slen s + lenN (clit_of (abs s) c) + 1 <= LIM ->
  exists s', insert_chars s idx c m = (StOk, s') /\ inv s' /\
             abs s' = l0_insert (abs s) idx (takeN m (clit_of (abs s) c)).
Proof.
  intros I F C B. unfold StrModel.insert_chars.
  pose proof (cstr_cregion s c I (fun _ => F) C) as R.
  assert (Triv : forall x, lenN x = 0 -> l0_insert (abs s) idx x = abs s).
  { intros x Hx. rewrite (lenN_0 x Hx). unfold l0_insert. cbn [app]. apply takeN_dropN. }
  destruct (cregion s c) as [r|] eqn:ER.
  2:{ subst c. exists s. splits; trivial. cbn [clit_of]. rewrite Triv; trivial. now rewrite takeN_nil. }
  set (x := clit_of (abs s) c) in *.
  assert (R0 : nthN 0 r = nthN 0 x \/ (nthN 0 r = 0 /\ x = [])).
  { destruct r as [|a t]; cbn [cstr] in R.
    - right. split; [reflexivity|now rewrite <- R].
    - destruct (a =? 0) eqn:Ea; [right; split; [apply N.eqb_eq in Ea; now rewrite Ea|now rewrite <- R]|].
      left. rewrite <- R. reflexivity. }
  destruct ((nthN 0 r =? 0) || (m =? 0)) eqn:E0.
  { exists s. splits; trivial. rewrite Triv; trivial. rewrite lenN_takeN.
    apply orb_true_iff in E0. destruct E0 as [E0|E0]; apply N.eqb_eq in E0; [|lia].
    destruct R0 as [R0|[_ ->]]; [|rewrite lenN_nil; lia].
    destruct x as [|a t]; [rewrite lenN_nil; lia|]. rewrite nthN_cons_0 in R0.
    pose proof (cstr_is_nulfree r) as Fr. rewrite R in Fr. inversion Fr; subst. congruence. }
  apply orb_false_iff in E0. destruct E0 as [E0 E0']. apply N.eqb_neq in E0, E0'.
  rewrite R. set (n := N.min (lenN x) m).
  assert (Hn : n <> 0).
  { unfold n. destruct R0 as [R0|[R0 _]]; [|congruence]. destruct x; [cbn in R0; congruence|rewrite lenN_cons; lia]. }
  (* a pointer into our own array goes through the temporary copy; either way the first n bytes of the C string go in *)
  destruct (insert_aux_ext s idx r (clocal s c) n 1 I E0 Hn) as (s' & E & I' & A').
  - intros _. pose proof (lenN_cstr_le r) as Lr. rewrite R in Lr. unfold n. lia.
  - unfold n. lia.
  - exists s'. splits; trivial. rewrite A', concat_rep1. f_equal.
    assert (Ed : takeN n (if clocal s c then cstr r else r) = takeN n x).
    { destruct (clocal s c); [|rewrite takeN_cstr by (rewrite R; unfold n; lia)]; now rewrite R. }
    rewrite Ed. unfold n. rewrite N.min_comm. apply takeN_min_len.
Qed.

(* Prealloc never changes the value, whatever it is asked for (the repaired F27) *)
Lemma prealloc_safe s n : inv s -> inv (snd (prealloc s n)) /\ abs (snd (prealloc s n)) = abs s.
Proof.
  intros I. unfold StrModel.prealloc.
  pose proof (ensure_spec s (u32 (n + 1)) true I) as G.
  destruct (ensure s (u32 (n + 1)) true false) as [[|] s']; cbn [snd].
  - destruct G as (G1 & _ & G3). split; trivial. now apply abs_of_prefix; apply G3.
  - subst s'. split; trivial.
Qed.
Lemma prealloc_ok s n : inv s -> n + 1 <= LIM ->
  exists s', prealloc s n = (StOk, s') /\ inv s' /\ abs s' = abs s /\ n + 1 <= cap s' /\ slen s' = slen s.
Proof.
  intros I B. unfold StrModel.prealloc. rewrite u32_small by (unfold LIM in B; lia).
  destruct (ensure_grow_ok s (n + 1) I B) as (s1 & E & I1 & C1 & L1 & A1 & _).
  exists s1. splits; trivial.
Qed.

(* ShrinkToFit never changes the value either (the repaired F31) *)
Lemma shrink_safe s extra : inv s -> inv (snd (shrink_to_fit s extra)) /\ abs (snd (shrink_to_fit s extra)) = abs s.
Proof.
  intros I. unfold StrModel.shrink_to_fit.
  pose proof (inv_lt _ I) as Lt. pose proof (cap_lt s I) as Cl.
  set (req := u32 (slen s + 1 + N.min extra (NOLIMIT - (slen s + 1)))).
  assert (R : slen s < req).
  { unfold req, NOLIMIT. rewrite u32_small by lia. lia. }
  pose proof (ensure_shrink s req I R) as G.
  destruct (ensure s req true true) as [[|] s']; cbn [snd].
  - destruct G as (G1 & G2 & _). split; trivial.
  - subst s'. split; trivial.
Qed.

(* ... and succeeds while the exact size stays within LIM *)
Lemma shrink_ok s extra : inv s -> slen s + 1 + extra <= LIM ->
  exists s', shrink_to_fit s extra = (StOk, s') /\ rep s' (abs s).
Proof.
  intros I B. pose proof (shrink_safe s extra I) as R.
  assert (Ok : fst (shrink_to_fit s extra) = StOk).
  { unfold StrModel.shrink_to_fit. rewrite N.min_l by (unfold NOLIMIT, LIM in *; lia).
    rewrite u32_small by (unfold LIM in *; lia).
    unfold StrModel.ensure. destruct (slen s + 1 + extra =? cap s); [reflexivity|].
    cbn [orb]. rewrite N.ltb_irrefl.
    rewrite (eqb_f (slen s + 1 + extra) 0) by lia.
    rewrite (leb_f 2147483648 (slen s + 1 + extra)) by (unfold LIM in *; lia).
    destruct (is_long s), (slen s + 1 + extra <=? M + 1); reflexivity. }
  destruct (shrink_to_fit s extra) as [e x]. cbn [fst snd] in *. subst e. now exists x.
Qed.

Lemma trunc_chars_rep r a n : rep r a -> rep (trunc_chars r n) (l0_trunc_chars a n).
Proof.
  intros [I <-]. unfold StrModel.trunc_chars, l0_trunc_chars. rewrite (lenN_abs r I). apply trunc_spec; trivial. lia.
Qed.
Lemma trunc_to_spec s n : inv s -> inv (trunc_to s n) /\ abs (trunc_to s n) = l0_trunc_to (abs s) n.
Proof.
  intros I. unfold StrModel.trunc_to, l0_trunc_to. rewrite (lenN_abs s I). apply trunc_spec; trivial. lia.
Qed.

Lemma flatten_spec s : inv s -> flatten1 s = abs s ++ [0].
Proof. intros I. unfold StrModel.flatten1. now apply take_with_nul. Qed.


(* parsing: input with a terminator yields the bytes before it; unterminated (or empty) input is rejected
   and leaves the String alone (the repaired F28) *)
Lemma unflatten_spec s bytes :
  inv s -> lenN bytes < LIM ->
  if list_eqb (cstr bytes) bytes then unflatten1 s bytes = (StErr, s)
  else exists s', unflatten1 s bytes = (StOk, s') /\ rep s' (cstr bytes).
Proof.
  intros I B. unfold StrModel.unflatten1. destruct (list_eqb (cstr bytes) bytes) eqn:E; [reflexivity|].
  apply cstr_shorter in E.
  destruct (set_cstr_spec s (CLit (cstr bytes)) NOLIMIT I) as (s' & -> & I' & A'); [discriminate|split; [apply cstr_is_nulfree|lia]|].
  exists s'. split; [reflexivity|]. split; [exact I'|]. rewrite A'. apply takeN_all. unfold NOLIMIT, LIM in *. lia.
Qed.


(* a source operand (a terminated buffer and a length) that holds the bytes [l] *)
Definition srep (o : src) (l : list N) : Prop := src_ok o /\ src_bytes o = l.
Lemma srep_of s l : rep s l -> srep (src_of M s) l.
Proof. intros [I <-]. split; [now apply src_ok_of|reflexivity]. Qed.
Lemma srep_lit l : srep (src_lit l) l.
Proof. split; [apply src_ok_lit|apply src_bytes_lit]. Qed.
Lemma srep_len o l : srep o l -> snd o = lenN l.
Proof. intros [O <-]. symmetry. now apply lenN_src_bytes. Qed.

Lemma empty_rep : rep empty1 [].
Proof. split; apply inv_empty1. Qed.
Lemma prealloc_rep r a n : rep r a -> rep (snd (prealloc r n)) a.
Proof. intros [I <-]. now apply prealloc_safe. Qed.
Lemma sub_rep o l first after : srep o l -> lenN l < LIM -> rep (ctor_sub o first after) (l0_sub l first after).
Proof.
  intros O B. rewrite <- (srep_len o l O) in B. destruct O as [O <-]. unfold StrModel.ctor_sub.
  destruct (set_from_spec empty1 (Some o) first after) as (x & -> & R); [apply empty_rep|now split|exact R].
Qed.
(* the copy constructors: SetFromString of the whole source into a fresh (preallocated) String *)
Lemma set_from_all_rep r a o l : rep r a -> srep o l -> lenN l < LIM -> rep (snd (set_from r (Some o) 0 NOLIMIT)) l.
Proof.
  intros [I _] O B. rewrite <- (l0_sub_all' l B). rewrite <- (srep_len o l O) in B. destruct O as [O <-].
  destruct (set_from_spec r (Some o) 0 NOLIMIT I) as (x & -> & R); [now split|exact R].
Qed.
Lemma copy_rep o l : srep o l -> lenN l < LIM -> rep (ctor_copy o) l.
Proof. apply (set_from_all_rep empty1 []), empty_rep. Qed.
Lemma copy_pre_rep o l extra : srep o l -> lenN l < LIM -> rep (ctor_copy_pre o extra) l.
Proof. apply (set_from_all_rep _ []), prealloc_rep, empty_rep. Qed.
Lemma set_cstr_rep r a x m : rep r a -> nulfree x -> lenN x < LIM -> rep (snd (set_cstr r (CLit x) m)) (takeN m x).
Proof.
  intros [I _] Fx B. destruct (set_cstr_spec r (CLit x) m I) as (y & -> & R); [discriminate|now split|exact R].
Qed.
Lemma ctor_pre_lit_spec pre l : nulfree l -> lenN l < LIM -> rep (ctor_pre_lit pre l) l.
Proof.
  intros F B. eapply rep_eq; [apply (set_cstr_rep _ []); trivial; apply prealloc_rep, empty_rep|].
  apply takeN_all. unfold NOLIMIT, LIM in *. lia.
Qed.

(* remove k bytes at idx: memmove(b+idx, b+idx+k, 1+len-(idx+k)); SetLength(len-k) *)
Lemma cut_spec s idx k : inv s -> idx + k <= slen s ->
  inv (cut s idx k) /\ abs (cut s idx k) = takeN idx (abs s) ++ dropN (idx + k) (abs s).
Proof.
  intros I H. unfold StrModel.cut.
  pose proof (inv_len _ I) as Ln. pose proof (inv_lt _ I) as Lt.
  set (Y := dropN (idx + k) (abs s)).
  assert (LY : lenN Y = slen s - (idx + k)) by (unfold Y; rewrite lenN_dropN, (lenN_abs s I); lia).
  assert (E : takeN (1 + slen s - (idx + k)) (dropN (idx + k) (buf s)) = Y ++ [0]).
  { rewrite takeN_dropN_comm. replace (1 + slen s - (idx + k) + (idx + k)) with (slen s + 1) by lia.
    rewrite (take_with_nul s I). unfold Y. rewrite dropN_app_le; trivial. rewrite (lenN_abs s I). lia. }
  rewrite E. replace (slen s - k) with (idx + lenN Y) by lia.
  apply commit_at; trivial; lia.
Qed.

Lemma map_content_spec s f : inv s -> lenN (f (abs s)) = slen s ->
  inv (map_content s f) /\ abs (map_content s f) = f (abs s).
Proof.
  intros I L. unfold StrModel.map_content. fold (abs s).
  pose proof (inv_len _ I) as Ln. pose proof (inv_lt _ I) as Lt. pose proof (inv_nul _ I) as Nu.
  set (b' := f (abs s) ++ dropN (slen s) (buf s)).
  assert (Lb : lenN b' = cap s) by (unfold b'; rewrite lenN_app, lenN_dropN; lia).
  assert (T : takeN (slen s) b' = f (abs s)) by (unfold b'; rewrite <- L; apply takeN_app_exact).
  assert (Nth : forall j, slen s <= j -> nthN j b' = nthN j (buf s)).
  { intros j Hj. unfold b'. rewrite nthN_app_r by lia. rewrite L, nthN_dropN. f_equal. lia. }
  destruct s as [b|h n c]; cbn [StrModel.wbuf].
  - cbn [StrModel.slen StrModel.cap buf] in *. destruct I as (_ & _ & _ & I4).
    assert (EM : nthN M b' = nthN M b) by (apply Nth; lia).
    unfold StrCore.inv, StrModel.abs. cbn [StrModel.slen StrModel.cap buf]. rewrite EM.
    splits; trivial. rewrite Nth by lia. exact Nu.
  - cbn [StrModel.slen StrModel.cap buf] in *. destruct I as (_ & _ & _ & I4).
    unfold StrCore.inv, StrModel.abs. cbn [StrModel.slen StrModel.cap buf].
    splits; trivial; try lia. rewrite Nth by lia. exact Nu.
Qed.

Lemma reverse_spec s : inv s -> inv (reverse1 s) /\ abs (reverse1 s) = rev (abs s).
Proof. intros I. apply map_content_spec; trivial. now rewrite lenN_rev, (lenN_abs s I). Qed.

Lemma replace_ch_spec s a b max from : inv s ->
  inv (fst (replace_ch1 s a b max from)) /\ abs (fst (replace_ch1 s a b max from)) = fst (l0_replace_ch (abs s) a b max from) /\
  snd (replace_ch1 s a b max from) = snd (l0_replace_ch (abs s) a b max from).
Proof.
  intros I. unfold StrModel.replace_ch1.
  pose proof (lenN_replace_ch (abs s) a b max from) as L.
  destruct (l0_replace_ch (abs s) a b max from) as [l k]. cbn [fst snd] in *.
  destruct (map_content_spec s (fun _ => l) I) as (A1 & A2).
  - rewrite L. apply (lenN_abs s I).
  - splits; trivial.
Qed.

Local Notation minus_ch := (minus_ch M).
Local Notation minus_s := (minus_s M).
Local Notation minus_c := (minus_c M).
Local Notation replace_s1 := (replace_s1 M TH PG OV jk true).

Lemma minus_ch_spec s ch : inv s ->
  inv (minus_ch s ch) /\
  abs (minus_ch s ch) = l0_minus_ch (abs s) ch.
Proof.
  intros I. unfold StrModel.minus_ch, l0_minus_ch.
  destruct (l0_last_index_of_ch (abs s) ch 0) as [|p|p] eqn:E.
  - destruct (last_index_of_ch_bound _ _ _ E) as [B _]; [lia|]. rewrite (lenN_abs s I) in B.
    apply cut_spec; trivial. cbn [Z.to_N] in *. lia.
  - destruct (last_index_of_ch_bound _ _ _ E) as [B _]; [lia|]. rewrite (lenN_abs s I) in B.
    apply cut_spec; trivial. lia.
  - split; trivial.
Qed.

Lemma cut_found s x : inv s -> x <> [] ->
  let r := match l0_last_index_of1 (abs s) x with Zneg _ => s | z => cut s (Z.to_N z) (lenN x) end in
  inv r /\ abs r = l0_minus (abs s) x.
Proof.
  intros I Ne r. unfold r, l0_minus. destruct x as [|a x]; [congruence|].
  destruct (l0_last_index_of1 (abs s) (a :: x)) as [|p|p] eqn:E.
  - destruct (last_index_of1_bound _ _ _ Ne E) as [B _]; [lia|]. rewrite (lenN_abs s I) in B.
    apply cut_spec; trivial.
  - destruct (last_index_of1_bound _ _ _ Ne E) as [B _]; [lia|]. rewrite (lenN_abs s I) in B.
    apply cut_spec; trivial.
  - split; trivial.
Qed.


Lemma minus_s_spec s o : inv s -> osrc_ok o ->
  inv (minus_s s o) /\ abs (minus_s s o) = l0_minus (abs s) (src_bytes (osrc s o)).
Proof.
  intros I O. unfold StrModel.minus_s.
  set (ob := src_bytes (osrc s o)).
  assert (Eq : (match o with None => true | Some _ => list_eqb (abs s) ob end) = true -> abs s = ob).
  { destruct o; [apply list_eqb_eq|]. intros _. reflexivity. }
  destruct (match o with None => true | Some _ => list_eqb (abs s) ob end) eqn:E.
  - rewrite <- (Eq eq_refl). rewrite l0_minus_self. destruct (clear_spec s I) as (A1 & A2). split; trivial.
  - clear Eq. destruct (0 <? lenN ob) eqn:E0.
    + apply cut_found; trivial. intros ->. discriminate.
    + apply N.ltb_ge in E0. rewrite (lenN_0 ob) by lia. split; trivial.
Qed.

Lemma minus_c_spec s c : inv s -> nulfree (abs s) -> carg_ok c ->
  inv (minus_c s c) /\ abs (minus_c s c) = l0_minus (abs s) (clit_of (abs s) c).
Proof.
  intros I F C. unfold StrModel.minus_c.
  pose proof (cstr_cregion s c I (fun _ => F) C) as R.
  destruct (cregion s c) as [r|] eqn:ER.
  2:{ subst c. cbn [clit_of]. split; trivial. }
  rewrite R. set (x := clit_of (abs s) c).
  destruct (0 <? lenN x) eqn:E0.
  - apply cut_found; trivial. intros E. rewrite E in E0. discriminate.
  - apply N.ltb_ge in E0. rewrite (lenN_0 x) by lia. split; trivial.
Qed.

(* the size premise: there are at most slen s matches and each adds at most the replacement's length *)
Lemma replace_s_spec s rm wm max from :
  inv s -> nulfree (abs s) -> osrc_ok wm ->
  slen s + snd (osrc s wm) * slen s + 1 <= LIM ->
  let r := replace_s1 s rm wm max from in
  let r0 := l0_replace_sub (abs s) (src_bytes (osrc s rm)) (src_bytes (osrc s wm)) max from in
  inv (fst r) /\ abs (fst r) = fst r0 /\ snd r = Z.of_N (snd r0).
Proof.
  intros I F Owm B r r0. unfold r, r0, StrModel.replace_s1. clear r r0.
  set (me := abs s). set (rb := src_bytes (osrc s rm)). set (wb := src_bytes (osrc s wm)).
  assert (Lme : lenN me = slen s) by apply (lenN_abs s I).
  assert (SOw : src_ok (osrc s wm)) by (destruct wm as [x|]; [apply Owm|now apply src_ok_of]).
  assert (Lwb : lenN wb = snd (osrc s wm)) by now apply lenN_src_bytes.
  pose proof (l0_replace_sub_facts me rb wb max from) as Fa. cbn zeta in Fa.
  destruct Fa as (F1 & F2 & F3 & F4).
  destruct (max =? 0) eqn:E1.
  { unfold l0_replace_sub. rewrite E1. cbn [orb fst snd]. splits; trivial. }
  destruct (slen s <=? from) eqn:E2.
  { unfold l0_replace_sub. rewrite Lme, E1, E2. cbn [orb fst snd]. splits; trivial. }
  destruct (lenN rb =? 0) eqn:E3.
  { unfold l0_replace_sub. rewrite Lme, E1, E2, E3. cbn [orb fst snd]. splits; trivial. }
  apply N.eqb_neq in E1, E3. apply N.leb_gt in E2.
  destruct (match rm, wm with None, None => true | _, _ => list_eqb rb wb end) eqn:E4.
  { assert (Eq : rb = wb).
    { destruct rm, wm; try (now apply list_eqb_eq). reflexivity. }
    cbn [fst snd]. splits; trivial.
    - symmetry. now apply F4.
    - rewrite F1. reflexivity. }
  destruct rm as [xr|].
  2:{ (* the needle is the subject itself *)
    cbn [StrModel.osrc] in rb. change rb with me in *.
    assert (Ne : me <> []) by (intros X; rewrite X in Lme; rewrite lenN_nil in Lme; lia).
    destruct (from =? 0) eqn:E5.
    - apply N.eqb_eq in E5. subst from. rewrite (l0_replace_sub_whole me wb max Ne E1). cbn [fst snd].
      destruct (set_from_spec s wm 0 NOLIMIT I Owm) as (s' & E & I' & A'). rewrite E. cbn [snd].
      splits; trivial. rewrite A'. apply l0_sub_all'. fold wb. rewrite Lwb.
      destruct wm as [x|]; [apply Owm|discriminate E4].
    - apply N.eqb_neq in E5. rewrite (l0_replace_sub_whole_from me wb max from) by lia. cbn [fst snd]. splits; trivial. }
  fold me rb wb.
  (* the general case: the pointer loops *)
  assert (Nrb : rb <> []) by (intros X; rewrite X, lenN_nil in E3; congruence).
  assert (Hfrom : from <= lenN me) by lia.
  assert (Unf : l0_replace_sub me rb wb max from =
                (takeN from me ++ fst (replace_sub_fuel (S (length me)) (dropN from me) rb wb max),
                 snd (replace_sub_fuel (S (length me)) (dropN from me) rb wb max))).
  { unfold l0_replace_sub. rewrite (eqb_f max 0) by trivial.
    rewrite (leb_f (lenN me) from) by lia.
    rewrite (eqb_f (lenN rb) 0) by trivial. cbn [orb].
    destruct (replace_sub_fuel (S (length me)) (dropN from me) rb wb max). reflexivity. }
  assert (Fuel : (N.to_nat (lenN me - from) < S (length me))%nat) by (unfold lenN; lia).
  destruct (l0_replace_sub me rb wb max from) as [res cnt] eqn:ER. cbn [fst snd] in F1, F2, F3, F4 |- *.
  set (RSF := replace_sub_fuel (S (length me)) (dropN from me) rb wb max) in *.
  assert (Eres : res = takeN from me ++ fst RSF) by congruence.
  assert (Ecnt : cnt = snd RSF) by congruence. clear Unf.
  destruct (lenN rb <? lenN wb) eqn:E6.
  - (* the replacement is longer: copy into a preallocated temporary, then swap *)
    apply N.ltb_lt in E6. rewrite (N.min_comm (l0_count_sub me rb from) max), <- F1.
    destruct (cnt =? 0) eqn:E7.
    { apply N.eqb_eq in E7. cbn [fst snd]. splits; trivial; [symmetry; now apply F3|now rewrite E7]. }
    apply N.eqb_neq in E7.
    assert (Cle : cnt <= slen s).
    { pose proof (l0_count_sub_le me rb from) as Hc. assert (0 < lenN rb) by lia. nia. }
    assert (Lres : lenN res = slen s + (lenN wb - lenN rb) * cnt) by nia.
    rewrite <- Lres.
    assert (Bres : lenN res + 1 <= LIM) by (unfold LIM in *; nia).
    rewrite u32_small by (unfold LIM in *; lia).
    destruct inv_empty1 as (I0 & S0 & A0 & _).
    destruct (prealloc_ok empty1 (lenN res) I0 Bres) as (t & E & It & At & Ct & St). rewrite E.
    pose proof (inv_len t It) as Lt.
    assert (Hfr : from <= lenN res) by (rewrite Eres, lenN_app, lenN_takeN; lia).
    set (tb0 := blit (buf t) 0 (takeN from (buf s))).
    assert (Lfrom : lenN (takeN from (buf s)) = from) by (rewrite lenN_takeN, (inv_len s I); pose proof (inv_lt s I); lia).
    assert (Ltb0 : lenN tb0 = StrModel.cap M t) by (unfold tb0; rewrite lenN_blit; lia).
    assert (Ttb0 : takeN from tb0 = takeN from me).
    { unfold tb0. rewrite <- Lfrom at 1. rewrite takeN_blit_0 by lia. rewrite Lfrom. unfold me, StrModel.abs.
      rewrite takeN_takeN. symmetry. rewrite takeN_takeN. f_equal. lia. }
    pose proof (repl_copy_spec me rb wb F Nrb (buf s)) as RC.
    specialize (RC ltac:(rewrite (inv_len s I), Lme; pose proof (inv_lt s I); lia)).
    specialize (RC ltac:(rewrite Lme; apply (take_with_nul s I))).
    specialize (RC (S (length me)) from tb0 from max 0 Hfrom Fuel).
    rewrite Lme in RC.
    fold RSF in RC. destruct RSF as [t' c'] eqn:ERS. cbn [fst snd] in Eres, Ecnt, RC.
    subst res cnt.
    destruct (repl_copy (S (length me)) (buf s) (slen s) from tb0 from rb wb max 0) as [[tb w] cnt'].
    destruct RC as (R1 & R2 & R3 & R4 & R5).
    { rewrite Ltb0. rewrite lenN_app, lenN_takeN in Ct. lia. }
    cbn [fst snd].
    destruct (commit_spec t tb w It) as (X1 & X3).
    + rewrite R2. exact Ltb0.
    + rewrite lenN_app, lenN_takeN in Ct. lia.
    + exact R4.
    + splits; trivial; [|f_equal; lia]. rewrite X3, R3, Ttb0. reflexivity.
  - (* in place *)
    apply N.ltb_ge in E6.
    assert (Bs : exists junk, buf s = me ++ 0 :: junk).
    { exists (dropN (slen s + 1) (buf s)). rewrite <- (takeN_dropN (slen s + 1) (buf s)) at 1.
      rewrite (take_with_nul s I), <- app_assoc. reflexivity. }
    destruct Bs as [junk Bs].
    pose proof (repl_inplace_spec me junk rb wb F Nrb (negb (lenN rb =? lenN wb)) E6) as RI.
    specialize (RI ltac:(intros X; apply negb_false_iff, N.eqb_eq in X; lia)).
    specialize (RI (S (length me)) (buf s) from None max 0 Hfrom Fuel).
    rewrite <- Bs in RI. specialize (RI eq_refl eq_refl).
    specialize (RI ltac:(rewrite Bs; apply takeN_app_le; lia)).
    cbn zeta in RI. rewrite Lme in RI.
    fold RSF in RI. destruct RSF as [t' c'] eqn:ERS. cbn [fst snd] in Eres, Ecnt, RI.
    subst res cnt.
    destruct (repl_inplace (S (length me)) (buf s) (slen s) from None rb wb (negb (lenN rb =? lenN wb)) max 0) as [[b' w'] cnt'].
    destruct RI as (R1 & R2 & R3).
    destruct w' as [wf|].
    + destruct R3 as (J1 & J2 & J3). cbn [fst snd].
      pose proof (inv_lt s I) as Lts.
      destruct (commit_spec s b' wf I) as (X1 & X3).
      * rewrite R2, (inv_len s I). reflexivity.
      * lia.
      * exact J2.
      * splits; trivial; [|f_equal; lia]. rewrite X3, J1. reflexivity.
    + destruct R3 as (_ & J2 & _). cbn [fst snd]. splits; trivial; [|f_equal; lia].
      symmetry. apply F3. now rewrite Ecnt.
Qed.

End Ops.
