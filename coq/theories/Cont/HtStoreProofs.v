(* Proofs about the storage-layer model of muscle's Hashtable (HtStore.v):
   structural invariant, its preservation, correctness of the chain walk,
   finite-map laws, lossless index narrowing, rebuild and run-level refinement. *)
From Coq Require Import List Arith ZArith NArith Bool Lia.
From Muscle Require Import Cont.HtStore.
Import ListNotations.

Lemma sto_upd_length : forall l i f, length (sto_upd l i f) = length l.
Proof.
  induction l as [|x r IH]; intros i f; simpl; [reflexivity|].
  destruct i; simpl; [reflexivity|]. rewrite IH. reflexivity.
Qed.

Lemma sto_nth_upd : forall l i f j d,
  nth j (sto_upd l i f) d = if (i =? j) && (i <? length l) then f (nth j l d) else nth j l d.
Proof.
  induction l as [|x r IH]; intros i f j d; simpl.
  - destruct j; destruct (i =? _); reflexivity.
  - destruct i as [|i]; destruct j as [|j]; simpl; try reflexivity.
    rewrite IH. reflexivity.
Qed.

Ltac st_gs :=
  intros;
  unfold st_gh, st_gk, st_gv, st_gp, st_gn, st_gmt, st_gmf, st_slot,
         st_set_bprev, st_set_bnext, st_set_mapto, st_set_mfrom, st_set_pay, st_set_v;
  rewrite sto_nth_upd; destruct (_ && _); reflexivity.

Lemma st_len_set_bprev : forall sl i v, length (st_set_bprev sl i v) = length sl.
Proof. intros; unfold st_set_bprev; apply sto_upd_length. Qed.
Lemma st_gh_set_bprev : forall sl i v j, st_gh (st_set_bprev sl i v) j = st_gh sl j.
Proof. st_gs. Qed.
Lemma st_gk_set_bprev : forall sl i v j, st_gk (st_set_bprev sl i v) j = st_gk sl j.
Proof. st_gs. Qed.
Lemma st_gv_set_bprev : forall sl i v j, st_gv (st_set_bprev sl i v) j = st_gv sl j.
Proof. st_gs. Qed.
Lemma st_gp_set_bprev : forall sl i v j, st_gp (st_set_bprev sl i v) j = if (i =? j) && (i <? length sl) then v else st_gp sl j.
Proof. st_gs. Qed.
Lemma st_gn_set_bprev : forall sl i v j, st_gn (st_set_bprev sl i v) j = st_gn sl j.
Proof. st_gs. Qed.
Lemma st_gmt_set_bprev : forall sl i v j, st_gmt (st_set_bprev sl i v) j = st_gmt sl j.
Proof. st_gs. Qed.
Lemma st_gmf_set_bprev : forall sl i v j, st_gmf (st_set_bprev sl i v) j = st_gmf sl j.
Proof. st_gs. Qed.
Lemma st_len_set_bnext : forall sl i v, length (st_set_bnext sl i v) = length sl.
Proof. intros; unfold st_set_bnext; apply sto_upd_length. Qed.
Lemma st_gh_set_bnext : forall sl i v j, st_gh (st_set_bnext sl i v) j = st_gh sl j.
Proof. st_gs. Qed.
Lemma st_gk_set_bnext : forall sl i v j, st_gk (st_set_bnext sl i v) j = st_gk sl j.
Proof. st_gs. Qed.
Lemma st_gv_set_bnext : forall sl i v j, st_gv (st_set_bnext sl i v) j = st_gv sl j.
Proof. st_gs. Qed.
Lemma st_gp_set_bnext : forall sl i v j, st_gp (st_set_bnext sl i v) j = st_gp sl j.
Proof. st_gs. Qed.
Lemma st_gn_set_bnext : forall sl i v j, st_gn (st_set_bnext sl i v) j = if (i =? j) && (i <? length sl) then v else st_gn sl j.
Proof. st_gs. Qed.
Lemma st_gmt_set_bnext : forall sl i v j, st_gmt (st_set_bnext sl i v) j = st_gmt sl j.
Proof. st_gs. Qed.
Lemma st_gmf_set_bnext : forall sl i v j, st_gmf (st_set_bnext sl i v) j = st_gmf sl j.
Proof. st_gs. Qed.
Lemma st_len_set_mapto : forall sl i v, length (st_set_mapto sl i v) = length sl.
Proof. intros; unfold st_set_mapto; apply sto_upd_length. Qed.
Lemma st_gh_set_mapto : forall sl i v j, st_gh (st_set_mapto sl i v) j = st_gh sl j.
Proof. st_gs. Qed.
Lemma st_gk_set_mapto : forall sl i v j, st_gk (st_set_mapto sl i v) j = st_gk sl j.
Proof. st_gs. Qed.
Lemma st_gv_set_mapto : forall sl i v j, st_gv (st_set_mapto sl i v) j = st_gv sl j.
Proof. st_gs. Qed.
Lemma st_gp_set_mapto : forall sl i v j, st_gp (st_set_mapto sl i v) j = st_gp sl j.
Proof. st_gs. Qed.
Lemma st_gn_set_mapto : forall sl i v j, st_gn (st_set_mapto sl i v) j = st_gn sl j.
Proof. st_gs. Qed.
Lemma st_gmt_set_mapto : forall sl i v j, st_gmt (st_set_mapto sl i v) j = if (i =? j) && (i <? length sl) then v else st_gmt sl j.
Proof. st_gs. Qed.
Lemma st_gmf_set_mapto : forall sl i v j, st_gmf (st_set_mapto sl i v) j = st_gmf sl j.
Proof. st_gs. Qed.
Lemma st_len_set_mfrom : forall sl i v, length (st_set_mfrom sl i v) = length sl.
Proof. intros; unfold st_set_mfrom; apply sto_upd_length. Qed.
Lemma st_gh_set_mfrom : forall sl i v j, st_gh (st_set_mfrom sl i v) j = st_gh sl j.
Proof. st_gs. Qed.
Lemma st_gk_set_mfrom : forall sl i v j, st_gk (st_set_mfrom sl i v) j = st_gk sl j.
Proof. st_gs. Qed.
Lemma st_gv_set_mfrom : forall sl i v j, st_gv (st_set_mfrom sl i v) j = st_gv sl j.
Proof. st_gs. Qed.
Lemma st_gp_set_mfrom : forall sl i v j, st_gp (st_set_mfrom sl i v) j = st_gp sl j.
Proof. st_gs. Qed.
Lemma st_gn_set_mfrom : forall sl i v j, st_gn (st_set_mfrom sl i v) j = st_gn sl j.
Proof. st_gs. Qed.
Lemma st_gmt_set_mfrom : forall sl i v j, st_gmt (st_set_mfrom sl i v) j = st_gmt sl j.
Proof. st_gs. Qed.
Lemma st_gmf_set_mfrom : forall sl i v j, st_gmf (st_set_mfrom sl i v) j = if (i =? j) && (i <? length sl) then v else st_gmf sl j.
Proof. st_gs. Qed.
Lemma st_len_set_pay : forall sl i h k v, length (st_set_pay sl i h k v) = length sl.
Proof. intros; unfold st_set_pay; apply sto_upd_length. Qed.
Lemma st_gh_set_pay : forall sl i h k v j, st_gh (st_set_pay sl i h k v) j = if (i =? j) && (i <? length sl) then h else st_gh sl j.
Proof. st_gs. Qed.
Lemma st_gk_set_pay : forall sl i h k v j, st_gk (st_set_pay sl i h k v) j = if (i =? j) && (i <? length sl) then k else st_gk sl j.
Proof. st_gs. Qed.
Lemma st_gv_set_pay : forall sl i h k v j, st_gv (st_set_pay sl i h k v) j = if (i =? j) && (i <? length sl) then v else st_gv sl j.
Proof. st_gs. Qed.
Lemma st_gp_set_pay : forall sl i h k v j, st_gp (st_set_pay sl i h k v) j = st_gp sl j.
Proof. st_gs. Qed.
Lemma st_gn_set_pay : forall sl i h k v j, st_gn (st_set_pay sl i h k v) j = st_gn sl j.
Proof. st_gs. Qed.
Lemma st_gmt_set_pay : forall sl i h k v j, st_gmt (st_set_pay sl i h k v) j = st_gmt sl j.
Proof. st_gs. Qed.
Lemma st_gmf_set_pay : forall sl i h k v j, st_gmf (st_set_pay sl i h k v) j = st_gmf sl j.
Proof. st_gs. Qed.
Lemma st_len_set_v : forall sl i v, length (st_set_v sl i v) = length sl.
Proof. intros; unfold st_set_v; apply sto_upd_length. Qed.
Lemma st_gh_set_v : forall sl i v j, st_gh (st_set_v sl i v) j = st_gh sl j.
Proof. st_gs. Qed.
Lemma st_gk_set_v : forall sl i v j, st_gk (st_set_v sl i v) j = st_gk sl j.
Proof. st_gs. Qed.
Lemma st_gv_set_v : forall sl i v j, st_gv (st_set_v sl i v) j = if (i =? j) && (i <? length sl) then v else st_gv sl j.
Proof. st_gs. Qed.
Lemma st_gp_set_v : forall sl i v j, st_gp (st_set_v sl i v) j = st_gp sl j.
Proof. st_gs. Qed.
Lemma st_gn_set_v : forall sl i v j, st_gn (st_set_v sl i v) j = st_gn sl j.
Proof. st_gs. Qed.
Lemma st_gmt_set_v : forall sl i v j, st_gmt (st_set_v sl i v) j = st_gmt sl j.
Proof. st_gs. Qed.
Lemma st_gmf_set_v : forall sl i v j, st_gmf (st_set_v sl i v) j = st_gmf sl j.
Proof. st_gs. Qed.
Global Hint Rewrite
  st_len_set_bprev st_gh_set_bprev st_gk_set_bprev st_gv_set_bprev st_gp_set_bprev st_gn_set_bprev st_gmt_set_bprev st_gmf_set_bprev
  st_len_set_bnext st_gh_set_bnext st_gk_set_bnext st_gv_set_bnext st_gp_set_bnext st_gn_set_bnext st_gmt_set_bnext st_gmf_set_bnext
  st_len_set_mapto st_gh_set_mapto st_gk_set_mapto st_gv_set_mapto st_gp_set_mapto st_gn_set_mapto st_gmt_set_mapto st_gmf_set_mapto
  st_len_set_mfrom st_gh_set_mfrom st_gk_set_mfrom st_gv_set_mfrom st_gp_set_mfrom st_gn_set_mfrom st_gmt_set_mfrom st_gmf_set_mfrom
  st_len_set_pay st_gh_set_pay st_gk_set_pay st_gv_set_pay st_gp_set_pay st_gn_set_pay st_gmt_set_pay st_gmf_set_pay
  st_len_set_v st_gh_set_v st_gk_set_v st_gv_set_v st_gp_set_v st_gn_set_v st_gmt_set_v st_gmf_set_v
  : stg.

(* a write inside the array: the bound test of the rules above goes *)
Lemma st_upd_in : forall i j n, i < n -> (i =? j) && (i <? n) = (i =? j).
Proof. intros i j n H. rewrite (proj2 (Nat.ltb_lt i n) H). apply andb_true_r. Qed.

Set Implicit Arguments.

Record st_same_pay (sl sl' : list slot) : Prop := mkSamePay {
  sp_len : length sl' = length sl;
  sp_gh  : forall x, st_gh sl' x = st_gh sl x;
  sp_gk  : forall x, st_gk sl' x = st_gk sl x;
  sp_gv  : forall x, st_gv sl' x = st_gv sl x }.

Definition st_same_maps (sl sl' : list slot) : Prop :=
  forall x, st_gmt sl' x = st_gmt sl x /\ st_gmf sl' x = st_gmf sl x.

(* in sl' slot e holds (h, k, v); length and the other payloads are those of sl *)
Record st_wrote (sl sl' : list slot) (e : nat) (h : option N) (k v : Z) : Prop := mkWrote {
  wr_len : length sl' = length sl;
  wr_gh  : forall y, st_gh sl' y = if e =? y then h else st_gh sl y;
  wr_gk  : forall y, st_gk sl' y = if e =? y then k else st_gk sl y;
  wr_gv  : forall y, st_gv sl' y = if e =? y then v else st_gv sl y }.

Unset Implicit Arguments.

Definition st_keeps_pay (f : slot -> slot) : Prop :=
  forall s, s_hash (f s) = s_hash s /\ s_key (f s) = s_key s /\ s_val (f s) = s_val s.
Definition st_keeps_maps (f : slot -> slot) : Prop :=
  forall s, s_mapto (f s) = s_mapto s /\ s_mfrom (f s) = s_mfrom s.

Lemma sp_refl : forall sl, st_same_pay sl sl.
Proof. constructor; reflexivity. Qed.

Lemma st_kept_pay : forall sl i f x, st_keeps_pay f ->
  st_gh (sto_upd sl i f) x = st_gh sl x /\ st_gk (sto_upd sl i f) x = st_gk sl x /\ st_gv (sto_upd sl i f) x = st_gv sl x.
Proof.
  intros sl i f x Hf. unfold st_gh, st_gk, st_gv, st_slot. rewrite sto_nth_upd. destruct (_ && _); [apply Hf|auto].
Qed.

Lemma sp_upd : forall sl sl' i f, st_keeps_pay f -> st_same_pay sl sl' -> st_same_pay sl (sto_upd sl' i f).
Proof.
  intros sl sl' i f Hf [L H K V].
  constructor; [rewrite sto_upd_length; exact L|..]; intros x; destruct (st_kept_pay sl' i f x Hf) as (A & B & C);
    rewrite ?A, ?B, ?C; auto.
Qed.

Lemma sp_trans : forall {sl sl1 sl2}, st_same_pay sl sl1 -> st_same_pay sl1 sl2 -> st_same_pay sl sl2.
Proof. intros sl sl1 sl2 [L H K V] [L' H' K' V']. constructor; intros; rewrite ?L', ?H', ?K', ?V'; auto. Qed.

Lemma sm_refl : forall sl, st_same_maps sl sl.
Proof. split; reflexivity. Qed.

Lemma sm_upd : forall sl sl' i f, st_keeps_maps f -> st_same_maps sl sl' -> st_same_maps sl (sto_upd sl' i f).
Proof.
  intros sl sl' i f Hf H x. destruct (H x) as [<- <-]. unfold st_gmt, st_gmf, st_slot. rewrite sto_nth_upd.
  destruct (_ && _); [apply Hf|split; reflexivity].
Qed.

Lemma wr_set_pay : forall sl sl' e h k v, st_same_pay sl sl' -> e < length sl ->
  st_wrote sl (st_set_pay sl' e h k v) e h k v.
Proof.
  intros sl sl' e h k v [L H K V] He.
  constructor; intros; autorewrite with stg; rewrite ?L, ?st_upd_in, ?H, ?K, ?V by exact He; reflexivity.
Qed.

Lemma wr_upd : forall sl sl' e h k v i f, st_keeps_pay f -> st_wrote sl sl' e h k v -> st_wrote sl (sto_upd sl' i f) e h k v.
Proof.
  intros sl sl' e h k v i f Hf [L H K V].
  constructor; [rewrite sto_upd_length; exact L|..]; intros x; destruct (st_kept_pay sl' i f x Hf) as (A & B & C);
    rewrite ?A, ?B, ?C; auto.
Qed.

Lemma sp_wr : forall {sl sl1 sl2 e h k v}, st_same_pay sl sl1 -> st_wrote sl1 sl2 e h k v -> st_wrote sl sl2 e h k v.
Proof. intros sl sl1 sl2 e h k v [L H K V] [L' H' K' V']. constructor; intros; rewrite ?L', ?H', ?K', ?V', ?H, ?K, ?V; auto. Qed.

(* peel a composite operation write by write; that a write keeps the fields in question is seen by
   computation on its function *)
Ltac st_kept := repeat (first [apply sp_upd | apply sm_upd | apply wr_upd]; [solve [intros ?; repeat split]|]).

Lemma st_pop_free_pay : forall sl e fh, st_same_pay sl (fst (st_pop_free sl e fh)).
Proof. intros. unfold st_pop_free. cbn [fst]. destruct (st_gn sl e), (st_gp sl e); st_kept; apply sp_refl. Qed.
Lemma st_pop_free_maps : forall sl e fh, st_same_maps sl (fst (st_pop_free sl e fh)).
Proof. intros. unfold st_pop_free. cbn [fst]. destruct (st_gn sl e), (st_gp sl e); st_kept; apply sm_refl. Qed.
Lemma st_link_after_wrote : forall sl ts e h k v, e < length sl -> st_wrote sl (st_link_after sl ts e h k v) e (Some h) k v.
Proof. intros. unfold st_link_after. cbv zeta. destruct (st_gn _ ts); st_kept; apply wr_set_pay; auto using sp_refl. Qed.
Lemma st_link_after_maps : forall sl ts e h k v, st_same_maps sl (st_link_after sl ts e h k v).
Proof. intros. unfold st_link_after. cbv zeta. destruct (st_gn _ ts); st_kept; apply sm_refl. Qed.
Lemma st_link_first_wrote : forall sl e h k v, e < length sl -> st_wrote sl (st_link_first sl e h k v) e (Some h) k v.
Proof. intros. unfold st_link_first. st_kept. apply wr_set_pay; auto using sp_refl. Qed.
Lemma st_link_first_maps : forall sl e h k v, st_same_maps sl (st_link_first sl e h k v).
Proof. intros. unfold st_link_first. st_kept. apply sm_refl. Qed.
Lemma st_push_free_wrote : forall sl e fh, e < length sl -> st_wrote sl (fst (st_push_free sl e fh)) e None 0 0.
Proof. intros. unfold st_push_free. cbn [fst]. apply wr_set_pay; [|assumption]. destruct fh; st_kept; apply sp_refl. Qed.
Lemma st_push_free_maps : forall sl e fh, st_same_maps sl (fst (st_push_free sl e fh)).
Proof. intros. unfold st_push_free. cbn [fst]. destruct fh; st_kept; apply sm_refl. Qed.
Lemma st_unlink_pay : forall sl i, st_same_pay sl (st_unlink sl i).
Proof. intros. unfold st_unlink, st_swap_maps. destruct (st_gp sl i), (st_gn sl i); st_kept; apply sp_refl. Qed.
Lemma st_swap_pay : forall sl i1 i2, st_same_pay sl (st_swap_maps sl i1 i2).
Proof. intros. unfold st_swap_maps. st_kept. apply sp_refl. Qed.
Lemma st_swap_links : forall sl i1 i2 x,
  st_gp (st_swap_maps sl i1 i2) x = st_gp sl x /\ st_gn (st_swap_maps sl i1 i2) x = st_gn sl x.
Proof. intros. unfold st_swap_maps. autorewrite with stg. split; reflexivity. Qed.

(* decide nat equalities and bound tests appearing in the goal *)
Ltac st_dec :=
  repeat match goal with
  | |- context[?a =? ?b] => destruct (Nat.eqb_spec a b)
  | |- context[?a <? ?b] => destruct (Nat.ltb_spec a b)
  end; simpl.

(* the link of y once x is taken out of its list: the neighbour of x on side a inherits x's link b *)
Definition st_skip (a b : nat -> option nat) (x y : nat) : option nat :=
  match a x with Some n => if n =? y then b x else b y | None => b y end.

(* read a link through the writes; every written index is in range by an assumption *)
Global Hint Rewrite
  st_len_set_bprev st_len_set_bnext st_len_set_mapto st_len_set_mfrom st_len_set_pay
  st_gp_set_bprev st_gn_set_bprev st_gp_set_bnext st_gn_set_bnext st_gp_set_mapto
  st_gn_set_mapto st_gp_set_mfrom st_gn_set_mfrom st_gp_set_pay st_gn_set_pay
  : stl.
Ltac st_links := autorewrite with stl; rewrite ?st_upd_in by assumption; try reflexivity.

Lemma st_pop_free_links : forall sl e fh,
  e < length sl -> (forall y, st_gn sl e = Some y \/ st_gp sl e = Some y -> y < length sl) ->
  forall y, y <> e ->
    st_gp (fst (st_pop_free sl e fh)) y = st_skip (st_gn sl) (st_gp sl) e y /\
    st_gn (fst (st_pop_free sl e fh)) y = st_skip (st_gp sl) (st_gn sl) e y.
Proof.
  intros sl e fh He Hnb y Hy. unfold st_skip, st_pop_free; cbn [fst].
  rewrite <- Nat.eqb_neq, Nat.eqb_sym in Hy.
  destruct (st_gn sl e) as [n|] eqn:En; [pose proof (Hnb n (or_introl eq_refl))|];
    (destruct (st_gp sl e) as [p|] eqn:Ep; [pose proof (Hnb p (or_intror eq_refl))|]);
    st_links; rewrite Hy; split; reflexivity.
Qed.

Lemma st_link_after_gp : forall sl ts e h k v y,
  e < length sl -> (forall n', st_gn sl ts = Some n' -> n' < length sl) ->
  st_gp (st_link_after sl ts e h k v) y =
    match st_gn sl ts with
    | Some n' => if n' =? y then Some e else if e =? y then Some ts else st_gp sl y
    | None => if e =? y then Some ts else st_gp sl y
    end.
Proof.
  intros sl ts e h k v y He Hn. unfold st_link_after; cbv zeta. autorewrite with stl.
  destruct (st_gn sl ts) as [n'|]; [specialize (Hn n' eq_refl)|]; st_links.
Qed.

Lemma st_link_after_gn : forall sl ts e h k v y,
  e < length sl -> ts < length sl ->
  st_gn (st_link_after sl ts e h k v) y =
    if ts =? y then Some e else if e =? y then st_gn sl ts else st_gn sl y.
Proof.
  intros sl ts e h k v y He Hts. unfold st_link_after; cbv zeta. autorewrite with stl.
  destruct (st_gn sl ts); st_links.
Qed.

Lemma st_link_first_gp : forall sl e h k v y, e < length sl ->
  st_gp (st_link_first sl e h k v) y = if e =? y then None else st_gp sl y.
Proof. intros. unfold st_link_first. st_links. Qed.
Lemma st_link_first_gn : forall sl e h k v y, e < length sl ->
  st_gn (st_link_first sl e h k v) y = if e =? y then None else st_gn sl y.
Proof. intros. unfold st_link_first. st_links. Qed.

Lemma st_unlink_links : forall sl i,
  (forall y, st_gn sl i = Some y \/ st_gp sl i = Some y -> y < length sl) ->
  forall y, st_gp (st_unlink sl i) y = st_skip (st_gn sl) (st_gp sl) i y /\
            st_gn (st_unlink sl i) y = st_skip (st_gp sl) (st_gn sl) i y.
Proof.
  intros sl i Hnb y. unfold st_skip, st_unlink, st_swap_maps.
  destruct (st_gn sl i) as [n|] eqn:En; [pose proof (Hnb n (or_introl eq_refl))|];
    (destruct (st_gp sl i) as [p|] eqn:Ep; [pose proof (Hnb p (or_intror eq_refl))|]);
    st_links; split; reflexivity.
Qed.

Lemma st_push_free_gn : forall sl e fh y, e < length sl ->
  st_gn (fst (st_push_free sl e fh)) y = if e =? y then fh else st_gn sl y.
Proof. intros. unfold st_push_free; cbn [fst]. destruct fh; st_links. Qed.

Lemma st_push_free_gp : forall sl e fh y, e < length sl -> (forall f, fh = Some f -> f < length sl) ->
  st_gp (fst (st_push_free sl e fh)) y =
    match fh with
    | Some f => if f =? y then Some e else if e =? y then None else st_gp sl y
    | None => if e =? y then None else st_gp sl y
    end.
Proof.
  intros sl e fh y He Hf. unfold st_push_free; cbn [fst].
  destruct fh as [f|]; [specialize (Hf f eq_refl)|]; st_links.
Qed.
Fixpoint st_lk (gp gn : nat -> option nat) (p : option nat) (l : list nat) : Prop :=
  match l with
  | [] => True
  | x :: r => gp x = p /\ gn x = hd_error r /\ st_lk gp gn (Some x) r
  end.

Lemma st_lk_ext : forall gp gn gp' gn' l p,
  (forall x, In x l -> gp' x = gp x /\ gn' x = gn x) ->
  st_lk gp gn p l -> st_lk gp' gn' p l.
Proof.
  intros gp gn gp' gn'. induction l as [|x r IH]; intros p Hext Hl; simpl in *; [exact I|].
  destruct Hl as (Hp & Hn & Hr).
  destruct (Hext x (or_introl eq_refl)) as [E1 E2].
  repeat split; try congruence.
  apply IH; [|exact Hr]. intros y Hy. apply Hext. right; exact Hy.
Qed.

(* facts about the element in the middle of a linked list *)
Lemma st_lk_mid : forall {gp gn l1 x l2 p},
  st_lk gp gn p (l1 ++ x :: l2) ->
  gn x = hd_error l2 /\ gp x = match rev l1 with [] => p | y :: _ => Some y end.
Proof.
  intros gp gn. induction l1 as [|a l1 IH]; intros x l2 p H; simpl in *.
  - destruct H as (Hp & Hn & _). split; assumption.
  - destruct H as (_ & _ & Hr). destruct (IH _ _ _ Hr) as [E1 E2]. split; [exact E1|].
    rewrite E2. destruct (rev l1) as [|y t] eqn:Er; simpl; reflexivity.
Qed.

Lemma st_hd_app_cons : forall (l1 : list nat) x l2, hd_error (l1 ++ x :: l2) = hd_error (l1 ++ [x]).
Proof. intros [|a l1] x l2; reflexivity. Qed.

Lemma st_hd_in : forall (l : list nat) x, hd_error l = Some x -> In x l.
Proof. intros [|a l] x H; simpl in *; [discriminate|]. injection H as ->. left; reflexivity. Qed.

Lemma st_lk_closed : forall gp gn l p x,
  st_lk gp gn p l -> In x l ->
  (forall n', gn x = Some n' -> In n' l) /\
  (forall q, gp x = Some q -> In q l \/ p = Some q).
Proof.
  intros gp gn. induction l as [|a l IH]; intros p x Hlk Hx; [destruct Hx|].
  simpl in Hlk. destruct Hlk as (Hp & Hn & Hr). destruct Hx as [<-|Hx].
  - split.
    + intros n' E. rewrite Hn in E. right. apply st_hd_in; exact E.
    + intros q E. right. rewrite <- Hp. exact E.
  - destruct (IH (Some a) x Hr Hx) as [A B]. split.
    + intros n' E. right. apply A; exact E.
    + intros q E. destruct (B q E) as [H|H]; [left; right; exact H|]. injection H as <-. left; left; reflexivity.
Qed.

Lemma st_lk_nbrs : forall gp gn l x y,
  st_lk gp gn None l -> In x l -> gn x = Some y \/ gp x = Some y -> In y l.
Proof.
  intros gp gn l x y Hlk Hx. destruct (st_lk_closed _ _ _ _ x Hlk Hx) as [A B].
  intros [E|E]; [exact (A y E)|]. destruct (B y E) as [H|H]; [exact H|discriminate].
Qed.

(* Induction on l1, the predecessor p generalised.  With l1 empty x is the head: its successor takes p as
   predecessor, the other members of l2 are neither that successor (NoDup) nor p, so they keep their links.
   Otherwise the head a keeps BUCKET_PREV (it is not the successor of x), and BUCKET_NEXT unless it is the
   predecessor of x (l1 = [a]), when it takes the successor of x; the rest is the induction hypothesis behind a. *)
Lemma st_lk_unlink : forall gp gn gp' gn' x l1 l2 p,
  st_lk gp gn p (l1 ++ x :: l2) ->
  NoDup (l1 ++ x :: l2) ->
  (forall y, p = Some y -> ~ In y (l1 ++ x :: l2)) ->
  (forall y, In y (l1 ++ l2) ->
     gp' y = st_skip gn gp x y /\ gn' y = st_skip gp gn x y) ->
  st_lk gp' gn' p (l1 ++ l2).
Proof.
  intros gp gn gp' gn' x. unfold st_skip. induction l1 as [|a l1 IH]; intros l2 p Hl Hnd Hp Hupd; simpl in *.
  - destruct Hl as (Hpx & Hnx & Hr).
    destruct l2 as [|n r]; simpl in *; [exact I|].
    destruct Hr as (Hpn & Hnn & Hrr).
    destruct (Hupd n (or_introl eq_refl)) as [E1 E2].
    rewrite Hnx in E1. rewrite Nat.eqb_refl in E1.
    repeat split.
    + congruence.
    + rewrite E2. rewrite Hpx. destruct p as [q|]; [|exact Hnn].
      destruct (Nat.eqb_spec q n) as [->|Hqn]; [|exact Hnn].
      exfalso. apply (Hp n eq_refl). right; left; reflexivity.
    + apply st_lk_ext with (gp := gp) (gn := gn); [|exact Hrr].
      intros y Hy. destruct (Hupd y (or_intror Hy)) as [F1 F2].
      rewrite Hnx in F1. rewrite Hpx in F2.
      assert (n <> y).
      { apply NoDup_cons_iff in Hnd as [_ Hnd2]. apply NoDup_cons_iff in Hnd2 as [Hni _]. intro Hc; apply Hni; rewrite Hc; exact Hy. }
      destruct (Nat.eqb_spec n y); [contradiction|].
      split; [exact F1|].
      destruct p as [q|]; [|exact F2].
      destruct (Nat.eqb_spec q y) as [->|]; [|exact F2].
      exfalso. apply (Hp y eq_refl). right; right; exact Hy.
  - destruct Hl as (Hpa & Hna & Hr).
    apply NoDup_cons_iff in Hnd as [Hani Hnd'].
    destruct (st_lk_mid Hr) as [Mn Mp].
    destruct (Hupd a (or_introl eq_refl)) as [E1 E2].
    repeat split.
    + rewrite E1. rewrite Mn. destruct l2 as [|n r]; simpl; [exact Hpa|].
      destruct (Nat.eqb_spec n a) as [->|]; [|exact Hpa].
      exfalso. apply Hani. apply in_or_app. right; right; left; reflexivity.
    + rewrite E2. rewrite Mp.
      destruct l1 as [|c l1']; simpl in *.
      * rewrite Nat.eqb_refl. exact Mn.
      * destruct (rev l1' ++ [c]) as [|y t] eqn:Er.
        { destruct (rev l1'); discriminate. }
        assert (Hy : In y (c :: l1')).
        { apply in_rev. simpl. rewrite Er. left; reflexivity. }
        destruct (Nat.eqb_spec y a) as [->|]; [|exact Hna].
        exfalso. apply Hani. destruct Hy as [Hy|Hy]; [left; exact Hy|right; apply in_or_app; left; exact Hy].
    + apply IH; try assumption.
      * intros y Hy. injection Hy as <-. exact Hani.
      * intros y Hy. apply Hupd. right; exact Hy.
Qed.

Lemma st_hd_unlink : forall (l1 : list nat) x l2 (fh : option nat),
  NoDup (l1 ++ x :: l2) -> fh = hd_error (l1 ++ x :: l2) ->
  (if st_opt_eqb fh (Some x) then hd_error l2 else fh) = hd_error (l1 ++ l2).
Proof.
  intros l1 x l2 fh Hnd ->. destruct l1 as [|a l1]; simpl in *.
  - rewrite Nat.eqb_refl. reflexivity.
  - destruct (Nat.eqb_spec a x) as [->|]; [|reflexivity].
    exfalso. inversion Hnd as [|? ? Hni _]; subst. apply Hni. apply in_or_app; right; left; reflexivity.
Qed.

(* pigeonhole *)
Lemma st_nodup_bound : forall (l : list nat) n, NoDup l -> (forall x, In x l -> x < n) -> length l <= n.
Proof.
  intros l n Hnd Hb. rewrite <- (seq_length n 0).
  apply NoDup_incl_length; [exact Hnd|]. intros x Hx. apply in_seq. specialize (Hb x Hx). lia.
Qed.

Lemma st_nodup_bound_strict : forall (l : list nat) n e, NoDup l -> (forall x, In x l -> x < n) -> e < n -> ~ In e l -> length l < n.
Proof.
  intros l n e Hnd Hb He Hni.
  assert (H : length (e :: l) <= n).
  { apply st_nodup_bound; [constructor; assumption|]. intros x [<-|Hx]; [exact He|apply Hb; exact Hx]. }
  simpl in H. lia.
Qed.

Definition st_in_bkt (sl : list slot) (x b : nat) : Prop :=
  exists h, st_gh sl x = Some h /\ st_bkt (length sl) h = b.

Definition st_perm (sl : list slot) : Prop :=
  forall i, i < length sl ->
    st_gmt sl i < length sl /\ st_gmf sl i < length sl /\
    st_gmf sl (st_gmt sl i) = i /\ st_gmt sl (st_gmf sl i) = i.

(* L is an optional "limbo" slot: one that is currently in neither the free list nor a chain
   (used for the intermediate states inside PutAuxAux and RemoveEntry). *)
Record st_ginv (L : option nat) (sl : list slot) (fh : option nat) (n : nat)
               (ch : nat -> list nat) (fl : list nat) : Prop := mkGinv {
  gi_pos   : 0 < length sl;
  gi_limbo : forall e, L = Some e -> e < length sl;
  gi_perm  : st_perm sl;
  gi_ch_lk : forall b, b < length sl -> st_lk (st_gp sl) (st_gn sl) None (ch b);
  gi_ch_nd : forall b, b < length sl -> NoDup (ch b);
  gi_ch_in : forall b x, b < length sl ->
               (In x (ch b) <-> x < length sl /\ L <> Some x /\ st_in_bkt sl x b);
  gi_ch_hd : forall b x, b < length sl -> hd_error (ch b) = Some x -> st_gmt sl b = x;
  gi_fl_lk : st_lk (st_gp sl) (st_gn sl) None fl;
  gi_fl_nd : NoDup fl;
  gi_fl_in : forall x, In x fl <-> x < length sl /\ L <> Some x /\ st_gh sl x = None;
  gi_fh    : fh = hd_error fl;
  gi_cnt   : n + length fl + (match L with Some _ => 1 | None => 0 end) = length sl;
  gi_keys  : forall x y, x < length sl -> y < length sl -> L <> Some x -> L <> Some y ->
               st_gh sl x <> None -> st_gh sl y <> None -> st_gk sl x = st_gk sl y -> x = y
}.

Definition sinv (st : store) : Prop :=
  exists ch fl, st_ginv None (slots st) (free_head st) (nitems st) ch fl.

Arguments gi_pos {L sl fh n ch fl}.
Arguments gi_limbo {L sl fh n ch fl}.
Arguments gi_perm {L sl fh n ch fl}.
Arguments gi_ch_lk {L sl fh n ch fl}.
Arguments gi_ch_nd {L sl fh n ch fl}.
Arguments gi_ch_in {L sl fh n ch fl}.
Arguments gi_ch_hd {L sl fh n ch fl}.
Arguments gi_fl_lk {L sl fh n ch fl}.
Arguments gi_fl_nd {L sl fh n ch fl}.
Arguments gi_fl_in {L sl fh n ch fl}.
Arguments gi_fh {L sl fh n ch fl}.
Arguments gi_cnt {L sl fh n ch fl}.
Arguments gi_keys {L sl fh n ch fl}.

Lemma st_bkt_lt : forall size h, 0 < size -> st_bkt size h < size.
Proof.
  intros size h Hs. unfold st_bkt.
  assert (H : (h mod N.of_nat size < N.of_nat size)%N) by (apply N.mod_lt; lia).
  lia.
Qed.

Lemma st_in_mid : forall (l1 : list nat) e l2 x, In x (l1 ++ e :: l2) <-> x = e \/ In x (l1 ++ l2).
Proof.
  intros. rewrite !in_app_iff. simpl. intuition congruence.
Qed.

Lemma st_perm_inj : forall sl i j, st_perm sl -> i < length sl -> j < length sl -> st_gmt sl i = st_gmt sl j -> i = j.
Proof.
  intros sl i j Hp Hi Hj E. destruct (Hp i Hi) as (_ & _ & E1 & _). destruct (Hp j Hj) as (_ & _ & E2 & _).
  rewrite <- E1, <- E2, E. reflexivity.
Qed.

Lemma st_perm_ext : forall {sl sl'}, length sl' = length sl -> st_same_maps sl sl' -> st_perm sl -> st_perm sl'.
Proof.
  intros sl sl' Hl Hm Hp i Hi. rewrite Hl in *.
  destruct (Hm i) as [-> ->]. destruct (Hm (st_gmt sl i)) as [_ ->]. destruct (Hm (st_gmf sl i)) as [-> _].
  apply Hp; exact Hi.
Qed.

(* Chains and free list alike.  The list of class [Some b] is the chain of bucket b, the list of
   class [None] is the free list; the class of a slot is the bucket of its hash, [None] when it holds
   none.  The list-shaped part of the invariant says the same of every class. *)
Definition st_lst (ch : nat -> list nat) (fl : list nat) (c : option nat) : list nat :=
  match c with Some b => ch b | None => fl end.

Definition st_cls (sl : list slot) (x : nat) : option nat := option_map (st_bkt (length sl)) (st_gh sl x).

Definition st_cok (len : nat) (c : option nat) : Prop := match c with Some b => b < len | None => True end.

Definition st_lists (L : option nat) (sl : list slot) (ch : nat -> list nat) (fl : list nat) : Prop :=
  forall c, st_cok (length sl) c ->
    st_lk (st_gp sl) (st_gn sl) None (st_lst ch fl c) /\ NoDup (st_lst ch fl c) /\
    forall x, In x (st_lst ch fl c) <-> x < length sl /\ L <> Some x /\ st_cls sl x = c.

Lemma st_cls_bkt : forall sl x b, st_cls sl x = Some b <-> st_in_bkt sl x b.
Proof.
  intros sl x b. unfold st_cls, st_in_bkt. destruct (st_gh sl x) as [h|]; simpl; split.
  - intros [= E]. exists h. auto.
  - intros (h' & [= <-] & E). rewrite E. reflexivity.
  - discriminate.
  - intros (h' & E & _). discriminate.
Qed.

Lemma st_cls_free : forall sl x, st_cls sl x = None <-> st_gh sl x = None.
Proof. intros sl x. unfold st_cls. destruct (st_gh sl x); simpl; split; (discriminate || reflexivity). Qed.

Lemma st_class_dec : forall c c' : option nat, c = c' \/ c <> c'.
Proof.
  intros [a|] [b|]; try (right; discriminate); [|left; reflexivity].
  destruct (Nat.eq_dec a b) as [->|N]; [left; reflexivity|right; congruence].
Qed.

Lemma st_ginv_intro : forall L sl fh n ch fl,
  0 < length sl -> (forall e, L = Some e -> e < length sl) -> st_perm sl -> st_lists L sl ch fl ->
  (forall b x, b < length sl -> hd_error (ch b) = Some x -> st_gmt sl b = x) ->
  fh = hd_error fl -> n + length fl + (match L with Some _ => 1 | None => 0 end) = length sl ->
  (forall x y, x < length sl -> y < length sl -> L <> Some x -> L <> Some y ->
     st_gh sl x <> None -> st_gh sl y <> None -> st_gk sl x = st_gk sl y -> x = y) ->
  st_ginv L sl fh n ch fl.
Proof.
  intros L sl fh n ch fl Hpos Hlim Hperm S Hhd Hfh Hcnt Hkeys.
  constructor; try assumption.
  - intros b Hb. apply (S (Some b) Hb).
  - intros b Hb. apply (S (Some b) Hb).
  - intros b x Hb. rewrite <- st_cls_bkt. apply (S (Some b) Hb).
  - apply (S None I).
  - apply (S None I).
  - intros x. rewrite <- st_cls_free. apply (S None I).
Qed.

Section GinvFacts.
Context {L : option nat} {sl : list slot} {fh : option nat} {n : nat} {ch : nat -> list nat} {fl : list nat}
        (G : st_ginv L sl fh n ch fl).

Lemma st_ginv_lists : st_lists L sl ch fl.
Proof.
  intros [b|] Hc; simpl in *.
  - split; [exact (gi_ch_lk G b Hc)|]. split; [exact (gi_ch_nd G b Hc)|].
    intros x. rewrite st_cls_bkt. exact (gi_ch_in G b x Hc).
  - split; [exact (gi_fl_lk G)|]. split; [exact (gi_fl_nd G)|].
    intros x. rewrite st_cls_free. exact (gi_fl_in G x).
Qed.

Lemma st_lst_in : forall c {x}, st_cok (length sl) c -> In x (st_lst ch fl c) ->
  x < length sl /\ L <> Some x /\ st_cls sl x = c.
Proof. intros c x Hc. apply (st_ginv_lists c Hc). Qed.

Lemma st_ch_lt : forall {b x}, b < length sl -> In x (ch b) -> x < length sl.
Proof. intros b x Hb H. apply (st_lst_in (Some b) Hb H). Qed.

Lemma st_fl_lt : forall {x}, In x fl -> x < length sl.
Proof. intros x H. apply (st_lst_in None I H). Qed.

Lemma st_lst_disj : forall c c' {x}, st_cok (length sl) c -> st_cok (length sl) c' ->
  In x (st_lst ch fl c) -> In x (st_lst ch fl c') -> c = c'.
Proof.
  intros c c' x Hc Hc' H1 H2. apply (st_lst_in c Hc) in H1. apply (st_lst_in c' Hc') in H2.
  destruct H1 as (_ & _ & <-). destruct H2 as (_ & _ & <-). reflexivity.
Qed.

Lemma st_ch_fl_disj : forall {b x}, b < length sl -> In x (ch b) -> In x fl -> False.
Proof. intros b x Hb Hc Hf. discriminate (st_lst_disj (Some b) None Hb I Hc Hf). Qed.

Lemma st_ch_ch_disj : forall {b b' x}, b < length sl -> b' < length sl -> In x (ch b) -> In x (ch b') -> b = b'.
Proof. intros b b' x Hb Hb' H1 H2. injection (st_lst_disj (Some b) (Some b') Hb Hb' H1 H2) as E. exact E. Qed.

Lemma st_used_in_ch : forall {i h}, i < length sl -> L <> Some i -> st_gh sl i = Some h ->
  st_bkt (length sl) h < length sl /\ In i (ch (st_bkt (length sl) h)).
Proof.
  intros i h Hi HL Eh.
  assert (Hb : st_bkt (length sl) h < length sl) by (apply st_bkt_lt; exact (gi_pos G)).
  split; [exact Hb|]. apply (gi_ch_in G _ i Hb). repeat split; [exact Hi|exact HL|]. exists h. split; [exact Eh|reflexivity].
Qed.

Lemma st_fl_short : forall {e}, e < length sl -> ~ In e fl -> length fl < length sl.
Proof.
  intros e He Hni. apply st_nodup_bound_strict with (e := e); [exact (gi_fl_nd G)| |exact He|exact Hni].
  intros x Hx. exact (st_fl_lt Hx).
Qed.

Lemma st_links_lt : forall {i y}, i < length sl -> L <> Some i ->
  st_gn sl i = Some y \/ st_gp sl i = Some y -> y < length sl.
Proof.
  intros i y Hi HL E.
  assert (Hc : exists c, st_cok (length sl) c /\ In i (st_lst ch fl c)).
  { destruct (st_gh sl i) as [h|] eqn:Eh.
    - destruct (st_used_in_ch Hi HL Eh) as [Hb Hin]. exists (Some (st_bkt (length sl) h)). split; assumption.
    - exists None. split; [exact I|]. apply (gi_fl_in G). auto. }
  destruct Hc as (c & Hc & Hin). destruct (st_ginv_lists c Hc) as (Lk & _ & _).
  apply (st_lst_in c Hc). exact (st_lk_nbrs _ _ _ i y Lk Hin E).
Qed.

End GinvFacts.

(* slot e leaves the list it is on and becomes the limbo slot: its neighbours are joined, every
   other link, all hashes and the length stay *)
Lemma st_lists_leave : forall sl sl' ch fl ch' fl' c e l1 l2,
  st_lists None sl ch fl -> st_cok (length sl) c ->
  st_lst ch fl c = l1 ++ e :: l2 -> st_lst ch' fl' c = l1 ++ l2 ->
  (forall c', c' <> c -> st_lst ch' fl' c' = st_lst ch fl c') ->
  length sl' = length sl -> (forall x, st_gh sl' x = st_gh sl x) ->
  (forall y, y <> e ->
     st_gp sl' y = st_skip (st_gn sl) (st_gp sl) e y /\ st_gn sl' y = st_skip (st_gp sl) (st_gn sl) e y) ->
  st_lists (Some e) sl' ch' fl'.
Proof.
  intros sl sl' ch fl ch' fl' c e l1 l2 S Hc E E' Eo Hl Hgh Hlk c' Hc'. rewrite Hl in *. unfold st_skip in Hlk.
  assert (Hcls : forall x, st_cls sl' x = st_cls sl x) by (intros x; unfold st_cls; rewrite Hl, Hgh; reflexivity).
  destruct (S c Hc) as (Lk & Nd & Hin). rewrite E in Lk, Nd, Hin.
  pose proof (NoDup_remove_2 _ _ _ Nd) as Heni.
  destruct (st_class_dec c' c) as [->|Hne].
  - rewrite E'. split; [|split; [exact (NoDup_remove_1 _ _ _ Nd)|]].
    + apply st_lk_unlink with (gp := st_gp sl) (gn := st_gn sl) (x := e); try assumption; [discriminate|].
      intros y Hy. apply Hlk. intros ->. contradiction.
    + intros x. rewrite Hcls. specialize (Hin x). rewrite st_in_mid in Hin. split.
      * intros Hx. assert (x <> e) by (intros ->; contradiction).
        destruct (proj1 Hin (or_intror Hx)) as (A & _ & C). repeat split; congruence.
      * intros (A & B & C). destruct (proj2 Hin) as [->|Hx]; [repeat split; auto; discriminate|congruence|exact Hx].
  - rewrite (Eo c' Hne). destruct (S c' Hc') as (Lk' & Nd' & Hin').
    assert (Hd : forall y, In y (st_lst ch fl c') -> ~ In y (l1 ++ e :: l2)).
    { intros y Hy Hy'. apply Hin' in Hy. apply Hin in Hy'. destruct Hy as (_ & _ & Cy), Hy' as (_ & _ & Cy'). congruence. }
    split; [|split; [exact Nd'|]].
    + apply st_lk_ext with (gp := st_gp sl) (gn := st_gn sl); [|exact Lk'].
      intros y Hy. pose proof (Hd y Hy) as Hny.
      destruct (Hlk y) as [-> ->]; [intros ->; apply Hny, in_elt|].
      split.
      * destruct (st_gn sl e) as [n|] eqn:En; [|reflexivity].
        destruct (Nat.eqb_spec n y) as [<-|_]; [|reflexivity].
        exfalso. apply Hny. apply (st_lk_nbrs _ _ _ e n Lk (in_elt _ _ _)). left; exact En.
      * destruct (st_gp sl e) as [q|] eqn:Ep; [|reflexivity].
        destruct (Nat.eqb_spec q y) as [<-|_]; [|reflexivity].
        exfalso. apply Hny. apply (st_lk_nbrs _ _ _ e q Lk (in_elt _ _ _)). right; exact Ep.
    + intros x. rewrite Hcls, (Hin' x). split; intros (A & B & C); repeat split; auto; [|discriminate].
      intros [= <-]. apply (Hd e); [apply Hin'; auto|apply in_elt].
Qed.

(* the limbo slot e, holding hash h in sl', joins the list of its class between l1 and l2 *)
Lemma st_lists_join : forall sl sl' ch fl ch' fl' c e h l1 l2,
  st_lists (Some e) sl ch fl -> e < length sl -> st_cok (length sl) c ->
  st_lst ch fl c = l1 ++ l2 -> st_lst ch' fl' c = l1 ++ e :: l2 ->
  (forall c', c' <> c -> st_lst ch' fl' c' = st_lst ch fl c') ->
  length sl' = length sl -> (forall y, st_gh sl' y = if e =? y then h else st_gh sl y) ->
  option_map (st_bkt (length sl)) h = c ->
  st_lk (st_gp sl') (st_gn sl') None (l1 ++ e :: l2) ->
  (forall y, y <> e -> ~ In y (l1 ++ l2) -> st_gp sl' y = st_gp sl y /\ st_gn sl' y = st_gn sl y) ->
  st_lists None sl' ch' fl'.
Proof.
  intros sl sl' ch fl ch' fl' c e h l1 l2 S He Hc E E' Eo Hl Hgh Hh Lk' Hfr c' Hc'. rewrite Hl in *.
  assert (Hcls : forall x, st_cls sl' x = if e =? x then c else st_cls sl x).
  { intros x. unfold st_cls. rewrite Hl, Hgh. destruct (e =? x); [exact Hh|reflexivity]. }
  destruct (S c Hc) as (_ & Nd & Hin). rewrite E in Nd, Hin.
  destruct (st_class_dec c' c) as [->|Hne].
  - rewrite E'.
    assert (Heni : ~ In e (l1 ++ l2)) by (intro Hx; apply Hin in Hx; destruct Hx as (_ & B & _); apply B; reflexivity).
    split; [exact Lk'|]. split; [apply (NoDup_Add (Add_app e l1 l2)); split; assumption|].
    intros x. rewrite st_in_mid, Hcls, (Hin x). destruct (Nat.eqb_spec e x) as [<-|N].
    + split; [intros _; repeat split; auto; discriminate|left; reflexivity].
    + split.
      * intros [->|(A & _ & C)]; [exfalso; apply N; reflexivity|repeat split; auto; discriminate].
      * intros (A & _ & C). right. repeat split; auto. congruence.
  - rewrite (Eo c' Hne). destruct (S c' Hc') as (Lk & Nd' & Hin').
    split; [|split; [exact Nd'|]].
    + apply st_lk_ext with (gp := st_gp sl) (gn := st_gn sl); [|exact Lk]. intros y Hy.
      apply Hin' in Hy. destruct Hy as (_ & B & Cy). apply Hfr; [congruence|].
      intro Hy. apply Hin in Hy. destruct Hy as (_ & _ & Cy'). congruence.
    + intros x. rewrite Hcls, (Hin' x). destruct (Nat.eqb_spec e x) as [<-|N].
      * split; [intros (_ & B & _); exfalso; apply B; reflexivity|intros (_ & _ & C); exfalso; apply Hne; symmetry; exact C].
      * split; intros (A & _ & C); repeat split; auto; [discriminate|congruence].
Qed.

Lemma st_ginv_ext : forall L sl sl' fh n ch fl,
  st_ginv L sl fh n ch fl ->
  length sl' = length sl -> (forall x, st_gh sl' x = st_gh sl x) -> (forall x, st_gk sl' x = st_gk sl x) ->
  (forall x, st_gp sl' x = st_gp sl x /\ st_gn sl' x = st_gn sl x) ->
  st_perm sl' -> (forall b x, b < length sl -> hd_error (ch b) = Some x -> st_gmt sl' b = x) ->
  st_ginv L sl' fh n ch fl.
Proof.
  intros L sl sl' fh n ch fl G Hl Hgh Hgk Hlk Hp Hhd.
  apply st_ginv_intro; rewrite ?Hl; try assumption.
  - exact (gi_pos G).
  - exact (gi_limbo G).
  - intros c Hc. rewrite Hl in Hc. destruct (st_ginv_lists G c Hc) as (Lk & Nd & Hin).
    split; [|split; [exact Nd|]].
    + apply st_lk_ext with (gp := st_gp sl) (gn := st_gn sl); [intros x _; apply Hlk|exact Lk].
    + intros x. unfold st_cls. rewrite Hl, Hgh. apply Hin.
  - exact (gi_fh G).
  - exact (gi_cnt G).
  - intros x y. rewrite !Hgh, !Hgk. apply (gi_keys G).
Qed.

Lemma st_pop_free_ginv : forall {sl fh n ch fl e},
  st_ginv None sl fh n ch fl -> In e fl ->
  exists fl', st_ginv (Some e) (fst (st_pop_free sl e fh)) (snd (st_pop_free sl e fh)) n ch fl'.
Proof.
  intros sl fh n ch fl e G Hin.
  destruct (in_split e fl Hin) as (l1 & l2 & Efl). exists (l1 ++ l2).
  pose proof (st_fl_lt G Hin) as He.
  assert (Hnb : forall y, st_gn sl e = Some y \/ st_gp sl e = Some y -> y < length sl)
    by (intros y; apply (st_links_lt G He); discriminate).
  destruct (st_pop_free_pay sl e fh) as [Hl Hgh Hgk _]. pose proof (st_pop_free_maps sl e fh) as Hm.
  pose proof (gi_fl_lk G) as Lk. pose proof (gi_fl_nd G) as Nd. pose proof (gi_cnt G) as Hc.
  rewrite Efl in Lk, Nd, Hc.
  apply st_ginv_intro.
  - rewrite Hl. exact (gi_pos G).
  - intros e0 [= <-]. rewrite Hl. exact He.
  - exact (st_perm_ext Hl Hm (gi_perm G)).
  - apply (st_lists_leave sl _ ch fl ch (l1 ++ l2) None e l1 l2 (st_ginv_lists G) I Efl eq_refl);
      try assumption.
    + intros [b|] Hne; [reflexivity|contradiction].
    + apply st_pop_free_links; assumption.
  - intros b x Hb. rewrite Hl in Hb. rewrite (proj1 (Hm b)). apply (gi_ch_hd G); exact Hb.
  - cbn [snd st_pop_free]. rewrite (proj1 (st_lk_mid Lk)).
    apply st_hd_unlink; [exact Nd|]. rewrite <- Efl. exact (gi_fh G).
  - rewrite Hl. rewrite app_length in *. simpl in *. lia.
  - intros x y. rewrite Hl, !Hgh, !Hgk. intros. apply (gi_keys G); auto; discriminate.
Qed.

(* the limbo slot e receives (hash, key) and joins the chain of its bucket between l1 and l2 *)
Lemma st_fill_ginv : forall sl sl' fh n ch fl e hash key val b l1 l2,
  st_ginv (Some e) sl fh n ch fl ->
  st_wrote sl sl' e (Some hash) key val -> st_same_maps sl sl' ->
  b = st_bkt (length sl) hash -> ch b = l1 ++ l2 ->
  (forall x, x < length sl -> x <> e -> st_gh sl x <> None -> st_gk sl x <> key) ->
  st_lk (st_gp sl') (st_gn sl') None (l1 ++ e :: l2) ->
  (forall y, y <> e -> ~ In y (l1 ++ l2) -> st_gp sl' y = st_gp sl y /\ st_gn sl' y = st_gn sl y) ->
  (forall x, hd_error (l1 ++ e :: l2) = Some x -> st_gmt sl b = x) ->
  st_ginv None sl' fh (S n) (fun b' => if b' =? b then l1 ++ e :: l2 else ch b') fl.
Proof.
  intros sl sl' fh n ch fl e hash key val b l1 l2 G [Hl Hgh Hgk _] Hm Hb Ech Habs Lk' Hfr Hhd.
  assert (He : e < length sl) by (apply (gi_limbo G); reflexivity).
  assert (Hbl : b < length sl) by (rewrite Hb; apply st_bkt_lt; exact (gi_pos G)).
  apply st_ginv_intro.
  - rewrite Hl. exact (gi_pos G).
  - discriminate.
  - exact (st_perm_ext Hl Hm (gi_perm G)).
  - apply (st_lists_join sl sl' ch fl _ fl (Some b) e (Some hash) l1 l2 (st_ginv_lists G) He Hbl Ech);
      try assumption.
    + simpl. rewrite Nat.eqb_refl. reflexivity.
    + intros [b'|] Hne; simpl; [|reflexivity]. destruct (Nat.eqb_spec b' b); [congruence|reflexivity].
    + simpl. rewrite Hb. reflexivity.
  - intros b' x Hb'. rewrite Hl in Hb'. rewrite (proj1 (Hm b')).
    destruct (Nat.eqb_spec b' b) as [->|_]; [apply Hhd|apply (gi_ch_hd G); exact Hb'].
  - exact (gi_fh G).
  - rewrite Hl. pose proof (gi_cnt G). simpl in *. lia.
  - intros x y. rewrite Hl, !Hgh, !Hgk. intros Hx Hy _ _ Ux Uy.
    destruct (Nat.eqb_spec e x) as [Hex|Hex]; destruct (Nat.eqb_spec e y) as [Hey|Hey]; intro E.
    + congruence.
    + exfalso. apply (Habs y); auto.
    + exfalso. apply (Habs x); auto.
    + apply (gi_keys G); auto; congruence.
Qed.

Ltac st_eqs :=
  repeat match goal with
  | |- context[?a =? ?a] => rewrite (Nat.eqb_refl a)
  | H : ?a <> ?b |- context[?a =? ?b] => rewrite (proj2 (Nat.eqb_neq a b) H)
  | H : ?b <> ?a |- context[?a =? ?b] => rewrite (proj2 (Nat.eqb_neq a b) (not_eq_sym H))
  end.

Lemma st_link_after_other : forall sl ts e h k v y,
  e < length sl -> ts < length sl -> (forall n', st_gn sl ts = Some n' -> n' < length sl) ->
  e <> y -> ts <> y -> (forall n', st_gn sl ts = Some n' -> n' <> y) ->
  st_gp (st_link_after sl ts e h k v) y = st_gp sl y /\ st_gn (st_link_after sl ts e h k v) y = st_gn sl y.
Proof.
  intros sl ts e h k v y He Hts Hn Hey Hty Hny.
  rewrite st_link_after_gp, st_link_after_gn by assumption.
  destruct (Nat.eqb_spec ts y); [contradiction|]. destruct (Nat.eqb_spec e y); [contradiction|].
  destruct (st_gn sl ts) as [n'|]; [|split; reflexivity].
  destruct (Nat.eqb_spec n' y) as [E|_]; [exfalso; apply (Hny n' eq_refl); exact E|]. split; reflexivity.
Qed.

Lemma st_link_after_ginv : forall sl fh n ch fl e hash key val ts cr b,
  st_ginv (Some e) sl fh n ch fl ->
  b = st_bkt (length sl) hash ->
  ch b = ts :: cr ->
  (forall x, x < length sl -> x <> e -> st_gh sl x <> None -> st_gk sl x <> key) ->
  st_ginv None (st_link_after sl ts e hash key val) fh (S n)
          (fun b' => if b' =? b then ts :: e :: cr else ch b') fl.
Proof.
  intros sl fh n ch fl e hash key val ts cr b G Hb Ech Habs.
  assert (He : e < length sl) by (apply (gi_limbo G); reflexivity).
  assert (Hbl : b < length sl) by (rewrite Hb; apply st_bkt_lt; exact (gi_pos G)).
  assert (Hlim : forall y, In y (ch b) -> e <> y).
  { intros y Hy ->. apply (st_lst_in G (Some b) Hbl) in Hy. destruct Hy as (_ & B & _). apply B; reflexivity. }
  assert (Hts : ts < length sl) by (apply (st_ch_lt G Hbl); rewrite Ech; left; reflexivity).
  pose proof (gi_ch_lk G b Hbl) as Lk. pose proof (gi_ch_nd G b Hbl) as Nd. rewrite Ech in Lk, Nd, Hlim.
  destruct Lk as (Hpts & Hnts & Lkcr). apply NoDup_cons_iff in Nd as [Htsni Ndcr].
  assert (Hnin : forall n', st_gn sl ts = Some n' -> In n' cr) by (intros n' E; apply st_hd_in; congruence).
  assert (Hnlt : forall n', st_gn sl ts = Some n' -> n' < length sl).
  { intros n' E. apply (st_ch_lt G Hbl). rewrite Ech. right. apply Hnin; exact E. }
  assert (Hets : e <> ts) by (apply Hlim; left; reflexivity).
  apply (st_fill_ginv sl _ fh n ch fl e hash key val b [ts] cr G); try assumption.
  - apply st_link_after_wrote; exact He.
  - apply st_link_after_maps.
  - cbn [app st_lk hd_error]. rewrite !st_link_after_gp, !st_link_after_gn by assumption. rewrite Hnts.
    destruct cr as [|n' cr']; cbn [hd_error st_lk] in *; st_eqs.
    + repeat split; try assumption; reflexivity.
    + destruct Lkcr as (Hpn & Hnn & Lk').
      assert (Hen : e <> n') by (apply Hlim; right; left; reflexivity).
      assert (Htn : ts <> n') by (intro E; apply Htsni; left; symmetry; exact E).
      apply NoDup_cons_iff in Ndcr as [Hnni _].
      rewrite !st_link_after_gp, !st_link_after_gn by assumption. rewrite Hnts. st_eqs.
      repeat split; try assumption; try reflexivity.
      apply st_lk_ext with (gp := st_gp sl) (gn := st_gn sl); [|exact Lk'].
      intros y Hy. apply st_link_after_other; try assumption.
      * apply Hlim. right; right; exact Hy.
      * intro E. apply Htsni. right. rewrite E. exact Hy.
      * intros n'' E1 E2. rewrite Hnts in E1. injection E1 as <-. apply Hnni. rewrite E2. exact Hy.
  - intros y Hey Hy. apply st_link_after_other; try assumption; try congruence.
    + intros ->. apply Hy. left; reflexivity.
    + intros n' E ->. apply Hy. right. apply Hnin; exact E.
  - intros x [= <-]. apply (gi_ch_hd G b ts Hbl). rewrite Ech. reflexivity.
Qed.

Lemma st_link_first_ginv : forall sl fh n ch fl e hash key val b,
  st_ginv (Some e) sl fh n ch fl ->
  b = st_bkt (length sl) hash ->
  ch b = [] ->
  st_gmt sl b = e ->
  (forall x, x < length sl -> x <> e -> st_gh sl x <> None -> st_gk sl x <> key) ->
  st_ginv None (st_link_first sl e hash key val) fh (S n)
          (fun b' => if b' =? b then [e] else ch b') fl.
Proof.
  intros sl fh n ch fl e hash key val b G Hb Ech Hmt Habs.
  assert (He : e < length sl) by (apply (gi_limbo G); reflexivity).
  apply (st_fill_ginv sl _ fh n ch fl e hash key val b [] [] G); try assumption.
  - apply st_link_first_wrote; exact He.
  - apply st_link_first_maps.
  - simpl. rewrite st_link_first_gp, st_link_first_gn, Nat.eqb_refl by assumption. auto.
  - intros y Hey _. rewrite st_link_first_gp, st_link_first_gn by assumption.
    destruct (Nat.eqb_spec e y); [congruence|split; reflexivity].
  - intros x [= <-]. exact Hmt.
Qed.

(* SwapEntryMaps composes MAP_TO with the transposition of i1 and i2 on one side and MAPPED_FROM on the other *)
Definition st_tr (i1 i2 i : nat) : nat := if i =? i1 then i2 else if i =? i2 then i1 else i.

Lemma st_tr_invol : forall i1 i2 i, st_tr i1 i2 (st_tr i1 i2 i) = i.
Proof.
  intros. unfold st_tr.
  destruct (Nat.eqb_spec i i1) as [->|N1]; [|destruct (Nat.eqb_spec i i2) as [->|N2]]; st_dec; congruence.
Qed.

Lemma st_tr_lt : forall i1 i2 i n, i1 < n -> i2 < n -> i < n -> st_tr i1 i2 i < n.
Proof. intros. unfold st_tr. st_dec; assumption. Qed.

Lemma st_swap_gmt : forall sl i1 i2 i, i1 < length sl -> i2 < length sl ->
  st_gmt (st_swap_maps sl i1 i2) i = st_gmt sl (st_tr i1 i2 i).
Proof.
  intros sl i1 i2 i H1 H2. unfold st_swap_maps, st_tr. autorewrite with stg.
  st_dec; subst; try reflexivity; try lia; congruence.
Qed.

Lemma st_swap_gmf : forall sl i1 i2 x, st_perm sl -> i1 < length sl -> i2 < length sl -> x < length sl ->
  st_gmf (st_swap_maps sl i1 i2) x = st_tr i1 i2 (st_gmf sl x).
Proof.
  intros sl i1 i2 x Hp H1 H2 Hx.
  destruct (Hp i1 H1) as (A1 & _ & C1 & _). destruct (Hp i2 H2) as (A2 & _ & C2 & _).
  destruct (Hp x Hx) as (_ & _ & _ & D).
  assert (Hiff : forall i, i < length sl -> (st_gmt sl i =? x) = (st_gmf sl x =? i)).
  { intros i Hi. destruct (Hp i Hi) as (_ & _ & C & _).
    destruct (Nat.eqb_spec (st_gmt sl i) x) as [<-|N]; symmetry; [rewrite C; apply Nat.eqb_refl|apply Nat.eqb_neq; congruence]. }
  unfold st_swap_maps, st_tr. autorewrite with stg.
  rewrite (proj2 (Nat.ltb_lt _ _) H1), (proj2 (Nat.ltb_lt _ _) H2), ?andb_true_r, ?Nat.eqb_refl.
  destruct (Nat.eqb_spec i2 i1) as [->|NE].
  - rewrite (proj2 (Nat.ltb_lt _ _) A1), ?andb_true_r, !Hiff by assumption. reflexivity.
  - destruct (Nat.eqb_spec i1 i2) as [E'|_]; [exfalso; apply NE; symmetry; exact E'|].
    rewrite (proj2 (Nat.ltb_lt _ _) A1), (proj2 (Nat.ltb_lt _ _) A2), ?andb_true_r, !Hiff by assumption. reflexivity.
Qed.

Lemma st_swap_perm : forall sl i1 i2, st_perm sl -> i1 < length sl -> i2 < length sl ->
  st_perm (st_swap_maps sl i1 i2).
Proof.
  intros sl i1 i2 Hp H1 H2 i Hi. rewrite (sp_len (st_swap_pay sl i1 i2)) in *.
  pose proof (st_tr_lt i1 i2 i _ H1 H2 Hi) as Ht.
  destruct (Hp i Hi) as (_ & B & _ & D). destruct (Hp _ Ht) as (A & _ & C & _).
  rewrite !st_swap_gmt by assumption. rewrite !st_swap_gmf by assumption. rewrite C, !st_tr_invol.
  repeat split; try assumption. apply st_tr_lt; assumption.
Qed.

Lemma st_swap_ginv_empty : forall L sl fh n ch fl i1 i2,
  st_ginv L sl fh n ch fl -> i1 < length sl -> i2 < length sl ->
  ch i1 = [] -> ch i2 = [] ->
  st_ginv L (st_swap_maps sl i1 i2) fh n ch fl.
Proof.
  intros L sl fh n ch fl i1 i2 G H1 H2 E1 E2. destruct (st_swap_pay sl i1 i2) as [Hl Hgh Hgk _].
  apply (st_ginv_ext L sl _ fh n ch fl G Hl Hgh Hgk (st_swap_links sl i1 i2)).
  - apply st_swap_perm; try assumption. exact (gi_perm G).
  - intros b x Hb Hhd. rewrite st_swap_gmt by assumption. unfold st_tr.
    destruct (Nat.eqb_spec b i1) as [->|_]; [rewrite E1 in Hhd; discriminate|].
    destruct (Nat.eqb_spec b i2) as [->|_]; [rewrite E2 in Hhd; discriminate|].
    apply (gi_ch_hd G); assumption.
Qed.

Lemma st_unlink_maps_same : forall sl i,
  (st_gp sl i <> None \/ st_gn sl i = None) -> st_same_maps sl (st_unlink sl i).
Proof.
  intros sl i H. unfold st_unlink.
  destruct (st_gp sl i) as [p|]; destruct (st_gn sl i) as [n'|]; st_kept; try apply sm_refl.
  destruct H as [H|H]; [contradiction|discriminate].
Qed.

Lemma st_unlink_head : forall sl i n',
  st_gp sl i = None -> st_gn sl i = Some n' ->
  st_unlink sl i = st_swap_maps (st_set_bprev sl n' None) (st_gmf sl i) (st_gmf sl n').
Proof.
  intros sl i n' Ep En. unfold st_unlink. rewrite Ep, En. autorewrite with stg. reflexivity.
Qed.

(* RemoveEntry keeps MAP_TO / MAPPED_FROM, unless e heads its chain and has a successor n': then it swaps
   the entries of e's bucket and of the bucket whose starter slot n' is, and the bucket maps to n' *)
Lemma st_unlink_maps : forall {sl fh n ch fl e b l1 l2},
  st_ginv None sl fh n ch fl -> b < length sl -> ch b = l1 ++ e :: l2 ->
  st_perm (st_unlink sl e) /\
  forall b' x, b' < length sl ->
    hd_error (if b' =? b then l1 ++ l2 else ch b') = Some x -> st_gmt (st_unlink sl e) b' = x.
Proof.
  intros sl fh n ch fl e b l1 l2 G Hbl Ech.
  pose proof (sp_len (st_unlink_pay sl e)) as Hl.
  pose proof (gi_ch_lk G b Hbl) as Lk. rewrite Ech in Lk. destruct (st_lk_mid Lk) as [Mn Mp].
  match goal with |- ?C => assert (Hsame : st_gp sl e <> None \/ st_gn sl e = None -> C) end.
  { intros H. pose proof (st_unlink_maps_same sl e H) as Hs.
    split; [exact (st_perm_ext Hl Hs (gi_perm G))|].
    intros b' x Hb' Hhd. rewrite (proj1 (Hs b')).
    destruct (Nat.eqb_spec b' b) as [->|_]; [|apply (gi_ch_hd G); assumption].
    apply (gi_ch_hd G b x Hbl). rewrite Ech. destruct l1 as [|a l1']; [|exact Hhd].
    destruct H as [H|H]; [contradiction|]. rewrite H in Mn. destruct l2; discriminate. }
  destruct (st_gp sl e) as [p|] eqn:Ep; [apply Hsame; left; discriminate|].
  destruct (st_gn sl e) as [n'|] eqn:En; [|apply Hsame; right; reflexivity].
  (* head with a successor: the maps are swapped *)
  assert (El1 : l1 = []).
  { destruct l1 as [|a l1']; [reflexivity|]. simpl in Mp. destruct (rev l1' ++ [a]) eqn:Er; [|discriminate].
    destruct (rev l1'); discriminate. }
  subst l1. destruct l2 as [|n'' r]; [discriminate|]. injection Mn as <-. simpl in Ech |- *.
  rewrite (st_unlink_head sl e n' Ep En).
  set (a := st_set_bprev sl n' None).
  assert (Hla : length a = length sl) by apply st_len_set_bprev.
  assert (Hma : st_same_maps sl a) by (unfold a; st_kept; apply sm_refl).
  assert (Hhead : st_gmt sl b = e) by (apply (gi_ch_hd G b e Hbl); rewrite Ech; reflexivity).
  assert (Hn'lt : n' < length sl) by (apply (st_ch_lt G Hbl); rewrite Ech; right; left; reflexivity).
  destruct (gi_perm G b Hbl) as (_ & _ & Cb & _).
  destruct (gi_perm G n' Hn'lt) as (_ & Bn & _ & Dn).
  rewrite <- Hhead, Cb.
  split.
  - apply st_swap_perm; [exact (st_perm_ext Hla Hma (gi_perm G))|rewrite Hla; exact Hbl|rewrite Hla; exact Bn].
  - intros b' x Hb' Hhd.
    rewrite st_swap_gmt by (rewrite Hla; assumption). unfold st_tr. rewrite (proj1 (Hma _)).
    destruct (Nat.eqb_spec b' b) as [->|Hne].
    + simpl in Hhd. injection Hhd as <-. exact Dn.
    + destruct (Nat.eqb_spec b' (st_gmf sl n')) as [->|_]; [|apply (gi_ch_hd G); assumption].
      exfalso. apply Hne.
      assert (Hx : st_gmt sl (st_gmf sl n') = x) by (apply (gi_ch_hd G); assumption).
      rewrite Dn in Hx. subst x.
      apply (st_ch_ch_disj G (x := n') Hb' Hbl); [apply st_hd_in; exact Hhd|].
      rewrite Ech. right; left; reflexivity.
Qed.

Lemma st_unlink_ginv : forall {sl fh n ch fl e b l1 l2},
  st_ginv None sl fh n ch fl -> b < length sl -> ch b = l1 ++ e :: l2 ->
  st_ginv (Some e) (st_unlink sl e) fh (pred n)
          (fun b' => if b' =? b then l1 ++ l2 else ch b') fl.
Proof.
  intros sl fh n ch fl e b l1 l2 G Hbl Ech.
  assert (Hein : In e (ch b)) by (rewrite Ech; apply in_elt).
  assert (He : e < length sl) by exact (st_ch_lt G Hbl Hein).
  assert (Hnb : forall y, st_gn sl e = Some y \/ st_gp sl e = Some y -> y < length sl)
    by (intros y; apply (st_links_lt G He); discriminate).
  destruct (st_unlink_pay sl e) as [Hl Hgh Hgk _].
  destruct (st_unlink_maps G Hbl Ech) as [Hperm Hhd].
  apply st_ginv_intro.
  - rewrite Hl. exact (gi_pos G).
  - intros e0 [= <-]. rewrite Hl. exact He.
  - exact Hperm.
  - apply (st_lists_leave sl _ ch fl _ fl (Some b) e l1 l2 (st_ginv_lists G) Hbl Ech); try assumption.
    + simpl. rewrite Nat.eqb_refl. reflexivity.
    + intros [b'|] Hne; simpl; [|reflexivity]. destruct (Nat.eqb_spec b' b); [congruence|reflexivity].
    + intros y _. apply st_unlink_links; exact Hnb.
  - intros b' x Hb'. rewrite Hl in Hb'. apply Hhd; exact Hb'.
  - exact (gi_fh G).
  - rewrite Hl. pose proof (gi_cnt G) as Hc.
    pose proof (st_fl_short G He (st_ch_fl_disj G Hbl Hein)). simpl in Hc. lia.
  - intros x y. rewrite Hl, !Hgh, !Hgk. intros. apply (gi_keys G); auto; discriminate.
Qed.

Lemma st_push_free_ginv : forall {sl fh n ch fl e},
  st_ginv (Some e) sl fh n ch fl ->
  st_ginv None (fst (st_push_free sl e fh)) (snd (st_push_free sl e fh)) n ch (e :: fl).
Proof.
  intros sl fh n ch fl e G.
  assert (He : e < length sl) by (apply (gi_limbo G); reflexivity).
  pose proof (gi_fh G) as Hfh.
  assert (Hf_in : forall f, fh = Some f -> In f fl) by (intros f E; apply st_hd_in; rewrite <- Hfh; exact E).
  assert (Hf_lt : forall f, fh = Some f -> f < length sl).
  { intros f E. exact (st_fl_lt G (Hf_in f E)). }
  assert (Henf : ~ In e fl).
  { intro Hx. apply (gi_fl_in G) in Hx. destruct Hx as (_ & B & _). apply B; reflexivity. }
  destruct (st_push_free_wrote sl e fh He) as [Hl Hgh Hgk _]. pose proof (st_push_free_maps sl e fh) as Hm.
  apply st_ginv_intro.
  - rewrite Hl. exact (gi_pos G).
  - discriminate.
  - exact (st_perm_ext Hl Hm (gi_perm G)).
  - apply (st_lists_join sl _ ch fl ch (e :: fl) None e None [] fl (st_ginv_lists G) He I eq_refl eq_refl);
      try assumption; try reflexivity.
    + intros [b|] Hne; [reflexivity|contradiction].
    + cbn [app st_lk hd_error]. rewrite st_push_free_gp, st_push_free_gn by assumption. rewrite Nat.eqb_refl.
      pose proof (gi_fl_lk G) as Hlk. pose proof (gi_fl_nd G) as Hnd.
      destruct fl as [|f r]; cbn [st_lk hd_error] in *; subst fh.
      * repeat split; reflexivity.
      * assert (Hef : e <> f) by (intro E; apply Henf; left; symmetry; exact E).
        st_eqs. destruct Hlk as (Hpf & Hnf & Hlkr). apply NoDup_cons_iff in Hnd as [Hfni Hndr].
        rewrite st_push_free_gp, st_push_free_gn by assumption. st_eqs.
        repeat split; try reflexivity; try assumption.
        apply st_lk_ext with (gp := st_gp sl) (gn := st_gn sl); [|exact Hlkr].
        intros y Hy. rewrite st_push_free_gp, st_push_free_gn by assumption.
        assert (Hfy : f <> y) by (intro E; apply Hfni; rewrite E; exact Hy).
        assert (Hey : e <> y) by (intro E; apply Henf; right; rewrite E; exact Hy).
        st_eqs. split; reflexivity.
    + intros y Hey Hy. rewrite st_push_free_gp, st_push_free_gn by assumption.
      assert (e <> y) by congruence. st_eqs.
      destruct fh as [f|] eqn:Ef; [|split; reflexivity].
      destruct (Nat.eqb_spec f y) as [<-|_]; [exfalso; apply Hy, Hf_in; reflexivity|split; reflexivity].
  - intros b x Hb. rewrite Hl in Hb. rewrite (proj1 (Hm b)). apply (gi_ch_hd G); exact Hb.
  - reflexivity.
  - rewrite Hl. pose proof (gi_cnt G) as Hc. simpl in Hc |- *. lia.
  - intros x y. rewrite Hl, !Hgh, !Hgk. intros Hx Hy _ _.
    destruct (Nat.eqb_spec e x) as [Ex|Nx]; [intros U; exfalso; apply U; reflexivity|].
    destruct (Nat.eqb_spec e y) as [Ey|Ny]; [intros _ U; exfalso; apply U; reflexivity|].
    intros. apply (gi_keys G); auto; congruence.
Qed.

Lemma st_create_len : forall n, length (st_create_slots n) = n.
Proof. intros n. unfold st_create_slots. rewrite st_len_set_bnext, map_length, seq_length. reflexivity. Qed.

Lemma st_init_slot_nth : forall n i, i < n -> st_slot (map st_init_slot (seq 0 n)) i = st_init_slot i.
Proof.
  intros n i Hi. unfold st_slot.
  rewrite nth_indep with (d' := st_init_slot 0) by (rewrite map_length, seq_length; exact Hi).
  rewrite map_nth. rewrite seq_nth by exact Hi. reflexivity.
Qed.

Lemma st_create_gh : forall n i, st_gh (st_create_slots n) i = None.
Proof.
  intros n i. unfold st_create_slots. rewrite st_gh_set_bnext. unfold st_gh.
  destruct (Nat.ltb_spec i n) as [Hi|Hi].
  - rewrite st_init_slot_nth by exact Hi. reflexivity.
  - unfold st_slot. rewrite nth_overflow by (rewrite map_length, seq_length; exact Hi). reflexivity.
Qed.

Lemma st_create_get : forall n i, i < n ->
  st_gmt (st_create_slots n) i = i /\ st_gmf (st_create_slots n) i = i /\
  st_gp (st_create_slots n) i = match i with 0 => None | S j => Some j end /\
  st_gn (st_create_slots n) i = if S i =? n then None else Some (S i).
Proof.
  intros n i Hi. unfold st_create_slots. autorewrite with stg. rewrite map_length, seq_length.
  unfold st_gmt, st_gmf, st_gp, st_gn. rewrite st_init_slot_nth by exact Hi.
  cbn [st_init_slot s_mapto s_mfrom s_bprev s_bnext]. repeat split. st_dec; try reflexivity; lia.
Qed.

Lemma st_create_lk : forall n m a,
  a + m = n ->
  st_lk (st_gp (st_create_slots n)) (st_gn (st_create_slots n))
        (match a with 0 => None | S j => Some j end) (seq a m).
Proof.
  intros n. induction m as [|m IH]; intros a Ha; simpl; [exact I|].
  destruct (st_create_get n a ltac:(lia)) as (_ & _ & -> & ->).
  repeat split.
  - destruct m as [|m]; cbn [seq hd_error]; st_dec; try reflexivity; lia.
  - apply (IH (S a)). lia.
Qed.

Lemma st_create_ginv : forall n, 0 < n ->
  st_ginv None (st_create_slots n) (Some 0) 0 (fun _ => []) (seq 0 n).
Proof.
  intros n Hn. constructor.
  - rewrite st_create_len. exact Hn.
  - intros e E; discriminate.
  - intros i Hi. rewrite st_create_len in *.
    destruct (st_create_get n i Hi) as (A & B & _). rewrite !A, !B, A. auto.
  - intros b _. exact I.
  - intros b _. constructor.
  - intros b x _. split; [intros []|]. intros (_ & _ & h & Hh & _). rewrite st_create_gh in Hh. discriminate.
  - intros b x _ E. discriminate.
  - apply (st_create_lk n n 0). reflexivity.
  - apply seq_NoDup.
  - intros x. rewrite st_create_len, st_create_gh, in_seq. split.
    + intros [_ H]. repeat split; [exact H|discriminate].
    + intros (H & _ & _). lia.
  - destruct n; [lia|reflexivity].
  - rewrite st_create_len, seq_length. lia.
  - intros x y _ _ _ _ U. rewrite st_create_gh in U. exfalso; apply U; reflexivity.
Qed.

Theorem sinv_create : forall n, 0 < n -> sinv (st_create n).
Proof.
  intros n Hn. exists (fun _ => []), (seq 0 n). simpl. apply st_create_ginv; exact Hn.
Qed.

Definition st_key_absent (sl : list slot) (key : Z) : Prop :=
  forall x, x < length sl -> st_gh sl x <> None -> st_gk sl x <> key.

Lemma st_is_head_true : forall {sl fh n ch fl b},
  st_ginv None sl fh n ch fl -> b < length sl ->
  st_is_head sl (st_gmt sl b) = true -> exists cr, ch b = st_gmt sl b :: cr.
Proof.
  intros sl fh n ch fl b G Hb Hh. unfold st_is_head in Hh.
  destruct (st_gh sl (st_gmt sl b)) as [h'|] eqn:Eh; [|discriminate].
  apply Nat.eqb_eq in Hh.
  destruct (gi_perm G b Hb) as (A & _ & _ & _).
  destruct (st_used_in_ch G A ltac:(discriminate) Eh) as [Hb' Hin].
  rewrite (st_perm_inj sl _ _ (gi_perm G) Hb' Hb Hh) in Hin.
  destruct (ch b) as [|x cr] eqn:Ech; [destruct Hin|].
  exists cr. rewrite (gi_ch_hd G b x Hb) by (rewrite Ech; reflexivity). reflexivity.
Qed.

Lemma st_is_head_false : forall {sl fh n ch fl b},
  st_ginv None sl fh n ch fl -> b < length sl ->
  st_is_head sl (st_gmt sl b) = false -> ch b = [].
Proof.
  intros sl fh n ch fl b G Hb Hh.
  destruct (ch b) as [|x cr] eqn:Ech; [reflexivity|]. exfalso.
  assert (Hx : st_gmt sl b = x) by (apply (gi_ch_hd G b x Hb); rewrite Ech; reflexivity).
  assert (Hin : In x (ch b)) by (rewrite Ech; left; reflexivity).
  apply (gi_ch_in G b x Hb) in Hin. destruct Hin as (_ & _ & h & Eh & Ek).
  unfold st_is_head in Hh. rewrite Hx, Eh, Ek in Hh. rewrite Hx, Nat.eqb_refl in Hh. discriminate.
Qed.

(* PutAuxAux on an empty bucket b takes the bucket's starter slot MAP_TO[b] if that is unused, else
   the free head, after swapping the MAP_TO entries of b and of the bucket the free head starts *)
Lemma st_starter_spec : forall {sl fh n ch fl b f},
  st_ginv None sl fh n ch fl -> b < length sl -> ch b = [] -> fh = Some f ->
  forall sl0 ts0,
  (match st_gh sl (st_gmt sl b), fh with
   | Some _, Some f0 => (st_swap_maps sl (st_gmf sl (st_gmt sl b)) (st_gmf sl f0), f0)
   | _, _ => (sl, st_gmt sl b)
   end) = (sl0, ts0) ->
  st_ginv None sl0 fh n ch fl /\ In ts0 fl /\ st_gmt sl0 b = ts0 /\ st_same_pay sl sl0.
Proof.
  intros sl fh n ch fl b f G Hbl Ech Hfh sl0 ts0 E.
  destruct (gi_perm G b Hbl) as (Hts & _ & Cb & _).
  assert (Hfin : In f fl) by (apply st_hd_in; rewrite <- (gi_fh G); exact Hfh).
  destruct (st_gh sl (st_gmt sl b)) as [h'|] eqn:Eh.
  - rewrite Hfh, Cb in E. injection E as <- <-.
    assert (Hf : f < length sl) by exact (st_fl_lt G Hfin).
    destruct (gi_perm G f Hf) as (_ & Bf & _ & Df).
    assert (Ecf : ch (st_gmf sl f) = []).
    { destruct (ch (st_gmf sl f)) as [|x cr] eqn:Ec; [reflexivity|]. exfalso.
      assert (Hx : st_gmt sl (st_gmf sl f) = x) by (apply (gi_ch_hd G _ x Bf); rewrite Ec; reflexivity).
      rewrite Df in Hx. subst x.
      apply (st_ch_fl_disj G (x := f) Bf); [rewrite Ec; left; reflexivity|exact Hfin]. }
    split; [exact (st_swap_ginv_empty _ _ _ _ _ _ b (st_gmf sl f) G Hbl Bf Ech Ecf)|].
    split; [exact Hfin|].
    split; [rewrite st_swap_gmt by assumption; unfold st_tr; rewrite Nat.eqb_refl; exact Df|apply st_swap_pay].
  - assert (E' : (sl, st_gmt sl b) = (sl0, ts0)) by (destruct fh; exact E). injection E' as <- <-.
    split; [exact G|]. split; [apply (gi_fl_in G); repeat split; [exact Hts|discriminate|exact Eh]|].
    split; [reflexivity|apply sp_refl].
Qed.

(* PutAuxAux, once the slot e0 is chosen: it is popped from the free list and linked into its chain *)
Lemma st_pop_link_spec : forall st sl0 hash key val e0 link ch fl st' e,
  (let (sl1, fh1) := st_pop_free sl0 e0 (free_head st) in
   (mkStore (link sl1) fh1 (S (nitems st)), e0)) = (st', e) ->
  st_ginv None sl0 (free_head st) (nitems st) ch fl -> st_same_pay (slots st) sl0 -> In e0 fl ->
  (forall sl1 fh1 fl', st_same_pay (slots st) sl1 -> st_same_maps sl0 sl1 ->
     st_ginv (Some e0) sl1 fh1 (nitems st) ch fl' ->
     (exists ch', st_ginv None (link sl1) fh1 (S (nitems st)) ch' fl') /\
     st_wrote sl1 (link sl1) e0 (Some hash) key val) ->
  sinv st' /\ st_wrote (slots st) (slots st') e (Some hash) key val /\
  e < st_size st /\ st_gh (slots st) e = None /\ nitems st' = S (nitems st).
Proof.
  intros st sl0 hash key val e0 link ch fl st' e Eput G0 Sp0 Hin Hlink.
  destruct (st_pop_free_ginv G0 Hin) as (fl' & G1).
  pose proof (sp_trans Sp0 (st_pop_free_pay sl0 e0 (free_head st))) as Sp1.
  pose proof (st_pop_free_maps sl0 e0 (free_head st)) as Sm1.
  destruct (st_pop_free sl0 e0 (free_head st)) as [sl1 fh1]. cbn [fst snd] in *. injection Eput as <- <-.
  destruct (Hlink sl1 fh1 fl' Sp1 Sm1 G1) as [(ch' & G2) W]. cbn [slots free_head nitems].
  split; [exists ch', fl'; exact G2|]. split; [exact (sp_wr Sp1 W)|].
  apply (gi_fl_in G0) in Hin. destruct Hin as (A & _ & C). unfold st_size.
  rewrite (sp_len Sp0) in A. rewrite (sp_gh Sp0) in C. auto.
Qed.

Lemma st_put_new_spec : forall {st hash key val st' e},
  sinv st -> nitems st < st_size st -> st_key_absent (slots st) key ->
  st_put_new st hash key val = (st', e) ->
  sinv st' /\ st_wrote (slots st) (slots st') e (Some hash) key val /\
  e < st_size st /\ st_gh (slots st) e = None /\ nitems st' = S (nitems st).
Proof.
  intros st hash key val st' e (ch & fl & G) Hfree Habs Eput. unfold st_size in Hfree.
  set (sl := slots st) in *. set (b := st_bkt (length sl) hash).
  assert (Hbl : b < length sl) by (apply st_bkt_lt; exact (gi_pos G)).
  (* the free list is not empty *)
  pose proof (gi_cnt G) as Hc. simpl in Hc.
  destruct fl as [|f fr] eqn:Efl; [simpl in Hc; lia|]. rewrite <- Efl in G.
  assert (Hfh : free_head st = Some f) by (rewrite (gi_fh G), Efl; reflexivity).
  assert (Hfin : In f fl) by (rewrite Efl; left; reflexivity).
  assert (Habs1 : forall sl1 e1, st_same_pay sl sl1 ->
            forall x, x < length sl1 -> x <> e1 -> st_gh sl1 x <> None -> st_gk sl1 x <> key).
  { intros sl1 e1 Sp x Hx _. rewrite (sp_gh Sp), (sp_gk Sp). rewrite (sp_len Sp) in Hx. apply Habs; exact Hx. }
  unfold st_put_new in Eput. fold sl b in Eput.
  destruct (st_is_head sl (st_gmt sl b)) eqn:Ehd.
  - (* the bucket already has a chain: link behind its head *)
    destruct (st_is_head_true G Hbl Ehd) as (cr & Ech).
    rewrite Hfh in Eput. rewrite <- Hfh in Eput.
    apply (st_pop_link_spec st sl hash key val f (fun sl1 => st_link_after sl1 (st_gmt sl b) f hash key val)
             ch fl st' e Eput G (sp_refl sl) Hfin).
    intros sl1 fh1 fl' Sp1 Sm1 G1. split.
    + eexists. apply st_link_after_ginv with (ch := ch) (cr := cr); try exact G1;
        [reflexivity|rewrite (sp_len Sp1); exact Ech|apply Habs1; exact Sp1].
    + apply st_link_after_wrote. exact (gi_limbo G1 f eq_refl).
  - (* the bucket is empty: take its starter slot, or the free head after swapping the maps *)
    pose proof (st_is_head_false G Hbl Ehd) as Ech.
    destruct (match st_gh sl (st_gmt sl b), free_head st with
              | Some _, Some f0 => (st_swap_maps sl (st_gmf sl (st_gmt sl b)) (st_gmf sl f0), f0)
              | _, _ => (sl, st_gmt sl b)
              end) as [sl0 ts0] eqn:Epre.
    destruct (st_starter_spec G Hbl Ech Hfh sl0 ts0 Epre) as (G0 & Hin0 & Hmt0 & Sp0).
    apply (st_pop_link_spec st sl0 hash key val ts0 (fun sl1 => st_link_first sl1 ts0 hash key val)
             ch fl st' e Eput G0 Sp0 Hin0).
    intros sl1 fh1 fl' Sp1 Sm1 G1. split.
    + eexists. apply st_link_first_ginv with (ch := ch); try exact G1;
        [rewrite (sp_len Sp1); reflexivity|exact Ech| |apply Habs1; exact Sp1].
      exact (eq_trans (proj1 (Sm1 b)) Hmt0).
    + apply st_link_first_wrote. exact (gi_limbo G1 ts0 eq_refl).
Qed.

Theorem sinv_put_new : forall st hash key val,
  sinv st -> nitems st < st_size st -> st_key_absent (slots st) key ->
  sinv (fst (st_put_new st hash key val)).
Proof.
  intros st hash key val Hs Hfree Habs. destruct (st_put_new st hash key val) as [st' e] eqn:E.
  exact (proj1 (st_put_new_spec Hs Hfree Habs E)).
Qed.

Lemma st_remove_spec : forall st i,
  sinv st -> i < st_size st -> st_gh (slots st) i <> None ->
  sinv (st_remove st i) /\ st_wrote (slots st) (slots (st_remove st i)) i None 0 0 /\
  nitems (st_remove st i) = pred (nitems st).
Proof.
  intros st i (ch & fl & G) Hi Hu. unfold st_size in Hi.
  destruct (st_gh (slots st) i) as [h|] eqn:Eh; [clear Hu|exfalso; apply Hu; reflexivity].
  destruct (st_used_in_ch G Hi ltac:(discriminate) Eh) as [Hbl Hin].
  destruct (in_split i _ Hin) as (l1 & l2 & Ech).
  pose proof (st_push_free_ginv (st_unlink_ginv G Hbl Ech)) as G2.
  pose proof (st_unlink_pay (slots st) i) as Sp.
  assert (W : st_wrote (slots st) (fst (st_push_free (st_unlink (slots st) i) i (free_head st))) i None 0 0).
  { apply (sp_wr Sp). apply st_push_free_wrote. rewrite (sp_len Sp). exact Hi. }
  unfold st_remove. destruct (st_push_free (st_unlink (slots st) i) i (free_head st)) as [sl2 fh2].
  split; [eexists; eexists; exact G2|]. split; [exact W|reflexivity].
Qed.

Theorem sinv_remove : forall st i,
  sinv st -> i < st_size st -> st_gh (slots st) i <> None -> sinv (st_remove st i).
Proof. intros st i Hs Hi Hu. exact (proj1 (st_remove_spec st i Hs Hi Hu)). Qed.

Lemma st_set_v_ginv : forall L sl fh n ch fl i v,
  st_ginv L sl fh n ch fl -> st_ginv L (st_set_v sl i v) fh n ch fl.
Proof.
  intros L sl fh n ch fl i v G.
  assert (Hm : st_same_maps sl (st_set_v sl i v)) by (unfold st_set_v; st_kept; apply sm_refl).
  apply (st_ginv_ext L sl _ fh n ch fl G (st_len_set_v sl i v)).
  - apply st_gh_set_v.
  - apply st_gk_set_v.
  - intros x. autorewrite with stg. split; reflexivity.
  - exact (st_perm_ext (st_len_set_v sl i v) Hm (gi_perm G)).
  - intros b x Hb. rewrite st_gmt_set_v. apply (gi_ch_hd G); exact Hb.
Qed.

Theorem sinv_set_val : forall st i v, sinv st -> sinv (st_set_val st i v).
Proof.
  intros st i v (ch & fl & G). exists ch, fl. unfold st_set_val. cbn [slots free_head nitems].
  apply st_set_v_ginv. exact G.
Qed.

Lemma st_set_val_wrote : forall st i v, i < st_size st ->
  st_wrote (slots st) (slots (st_set_val st i v)) i (st_gh (slots st) i) (st_gk (slots st) i) v.
Proof.
  intros st i v Hi. unfold st_set_val. cbn [slots].
  constructor; intros; autorewrite with stg; rewrite ?st_upd_in by exact Hi; try reflexivity;
    destruct (Nat.eqb_spec i y) as [->|_]; reflexivity.
Qed.

Definition st_match (sl : list slot) (hash : N) (key : Z) (y : nat) : bool :=
  (match st_gh sl y with Some h => N.eqb h hash | None => false end) && Z.eqb (st_gk sl y) key.

Lemma st_walk_sound : forall sl fuel x hash key i,
  st_walk sl fuel x hash key = Some i -> st_match sl hash key i = true.
Proof.
  intros sl. induction fuel as [|f IH]; intros x hash key i H; simpl in H; [discriminate|].
  fold (st_match sl hash key x) in H.
  destruct (st_match sl hash key x) eqn:Em.
  - injection H as <-. exact Em.
  - destruct (st_gn sl x) as [n'|]; [|discriminate]. apply (IH _ _ _ _ H).
Qed.

Lemma st_walk_none : forall sl hash key l p x r fuel,
  st_lk (st_gp sl) (st_gn sl) p l -> l = x :: r ->
  (forall y, In y l -> st_match sl hash key y = false) ->
  st_walk sl fuel x hash key = None.
Proof.
  intros sl hash key. induction l as [|a l IH]; intros p x r fuel Hlk El Hno; [discriminate|].
  injection El as -> ->. destruct fuel as [|f]; [reflexivity|]. simpl.
  fold (st_match sl hash key x). rewrite (Hno x (or_introl eq_refl)).
  destruct Hlk as (_ & Hn & Hr). rewrite Hn.
  destruct r as [|y r']; [reflexivity|]. simpl.
  apply (IH (Some x) y r' f Hr eq_refl). intros z Hz. apply Hno. right; exact Hz.
Qed.

Lemma st_walk_found : forall sl hash key i l2 l1 p x fuel,
  st_lk (st_gp sl) (st_gn sl) p (l1 ++ i :: l2) ->
  hd_error (l1 ++ [i]) = Some x ->
  (forall y, In y l1 -> st_match sl hash key y = false) ->
  st_match sl hash key i = true ->
  length (l1 ++ i :: l2) <= fuel ->
  st_walk sl fuel x hash key = Some i.
Proof.
  intros sl hash key i l2. induction l1 as [|a l1 IH]; intros p x fuel Hlk Hhd Hno Hm Hf; simpl in *.
  - injection Hhd as <-. destruct fuel as [|f]; [lia|]. simpl. fold (st_match sl hash key i). rewrite Hm. reflexivity.
  - injection Hhd as <-. destruct fuel as [|f]; [lia|]. simpl. fold (st_match sl hash key a).
    rewrite (Hno a (or_introl eq_refl)).
    destruct Hlk as (_ & Hn & Hr). rewrite Hn. rewrite st_hd_app_cons.
    destruct (hd_error (l1 ++ [i])) as [y|] eqn:Ey; [|destruct l1; discriminate].
    apply (IH (Some a) y f Hr eq_refl); [|exact Hm|lia]. intros z Hz. apply Hno. right; exact Hz.
Qed.

Lemma st_gh_lt : forall sl i, st_gh sl i <> None -> i < length sl.
Proof.
  intros sl i H. destruct (Nat.ltb_spec i (length sl)) as [Hi|Hi]; [exact Hi|].
  exfalso. apply H. unfold st_gh, st_slot. rewrite nth_overflow by exact Hi. reflexivity.
Qed.

Section WithHash.
Variable hashf : Z -> N.

Definition st_hash_ok (sl : list slot) : Prop :=
  forall x h, st_gh sl x = Some h -> h = hashf (st_gk sl x).

Lemma st_match_iff : forall sl k y, st_hash_ok sl ->
  (st_match sl (hashf k) k y = true <-> st_gh sl y <> None /\ st_gk sl y = k).
Proof.
  intros sl k y Hok. unfold st_match. split.
  - intro H. apply andb_true_iff in H as [H1 H2]. apply Z.eqb_eq in H2.
    destruct (st_gh sl y); [|discriminate]. split; [discriminate|exact H2].
  - intros [H1 H2]. destruct (st_gh sl y) as [h|] eqn:Eh; [|exfalso; apply H1; reflexivity].
    rewrite (Hok y h Eh), H2, N.eqb_refl, Z.eqb_refl. reflexivity.
Qed.

Theorem st_get_correct : forall st k i,
  sinv st -> st_hash_ok (slots st) ->
  (st_get st (hashf k) k = Some i <->
   i < st_size st /\ st_gh (slots st) i <> None /\ st_gk (slots st) i = k).
Proof.
  intros st k i (ch & fl & G) Hok. unfold st_size. set (sl := slots st) in *. split.
  - unfold st_get. fold sl. intro H.
    destruct (nitems st =? 0); [discriminate|].
    destruct (st_is_head sl _); [|discriminate].
    apply st_walk_sound in H. apply (st_match_iff sl k i Hok) in H. destruct H as [H1 H2].
    repeat split; try assumption. apply st_gh_lt; exact H1.
  - intros (Hi & Hu & Hk).
    destruct (st_gh sl i) as [h|] eqn:Eh; [clear Hu|exfalso; apply Hu; reflexivity].
    destruct (st_used_in_ch G Hi ltac:(discriminate) Eh) as [Hbl Hin].
    rewrite (Hok i h Eh), Hk in Hbl, Hin. set (b := st_bkt (length sl) (hashf k)) in *.
    destruct (in_split i (ch b) Hin) as (l1 & l2 & Ech).
    assert (Hn0 : nitems st <> 0).
    { pose proof (gi_cnt G) as Hc. simpl in Hc.
      pose proof (st_fl_short G Hi (st_ch_fl_disj G Hbl Hin)). lia. }
    unfold st_get. fold sl. fold b.
    destruct (Nat.eqb_spec (nitems st) 0) as [E|_]; [contradiction|].
    destruct (st_is_head sl (st_gmt sl b)) eqn:Ehd;
      [|rewrite (st_is_head_false G Hbl Ehd) in Ech; destruct l1; discriminate].
    destruct (st_is_head_true G Hbl Ehd) as (cr & Ecr).
    pose proof (gi_ch_lk G b Hbl) as Hlk. pose proof (gi_ch_nd G b Hbl) as Hnd. rewrite Ech in Hlk, Hnd.
    apply st_walk_found with (l1 := l1) (l2 := l2) (p := None); try assumption.
    + rewrite <- st_hd_app_cons with (l2 := l2). rewrite <- Ech, Ecr. reflexivity.
    + intros y Hy. destruct (st_match sl (hashf k) k y) eqn:Em; [|reflexivity]. exfalso.
      apply (st_match_iff sl k y Hok) in Em. destruct Em as [U K].
      assert (Hyin : In y (ch b)) by (rewrite Ech; apply in_or_app; left; exact Hy).
      assert (Hyi : y = i).
      { apply (gi_keys G); try assumption; try discriminate.
        - exact (st_ch_lt G Hbl Hyin).
        - rewrite Eh; discriminate.
        - congruence. }
      subst y. apply NoDup_remove_2 in Hnd. apply Hnd. apply in_or_app. left; exact Hy.
    + apply (st_match_iff sl k i Hok). split; [rewrite Eh; discriminate|exact Hk].
    + rewrite <- Ech. apply st_nodup_bound; [apply (gi_ch_nd G); exact Hbl|].
      intros x Hx. exact (st_ch_lt G Hbl Hx).
Qed.

Theorem st_keys_distinct : forall st x y,
  sinv st -> x < st_size st -> y < st_size st ->
  st_gh (slots st) x <> None -> st_gh (slots st) y <> None ->
  st_gk (slots st) x = st_gk (slots st) y -> x = y.
Proof.
  intros st x y (ch & fl & G) Hx Hy Ux Uy E. apply (gi_keys G); try assumption; discriminate.
Qed.

Definition st_holds (sl : list slot) (k v : Z) (i : nat) : Prop :=
  i < length sl /\ st_gh sl i <> None /\ st_gk sl i = k /\ st_gv sl i = v.

Lemma st_used_key_iff : forall k s, st_used_key k s = true <-> s_hash s <> None /\ s_key s = k.
Proof.
  intros k s. unfold st_used_key. destruct (s_hash s); split.
  - intro H. apply Z.eqb_eq in H. split; [discriminate|exact H].
  - intros [_ H]. apply Z.eqb_eq; exact H.
  - discriminate.
  - intros [H _]. exfalso; apply H; reflexivity.
Qed.

Lemma st_lookup_some_elim : forall st k v,
  st_lookup st k = Some v -> exists i, st_holds (slots st) k v i.
Proof.
  intros st k v H. unfold st_lookup in H.
  destruct (find (st_used_key k) (slots st)) as [s|] eqn:Ef; [|discriminate].
  injection H as <-. apply find_some in Ef. destruct Ef as [Hin Hf].
  apply st_used_key_iff in Hf. destruct Hf as [Hu Hk].
  destruct (In_nth _ _ st_dflt Hin) as (i & Hi & En).
  exists i. unfold st_holds, st_gh, st_gk, st_gv, st_slot. rewrite En. auto.
Qed.

Lemma st_lookup_none_elim : forall st k,
  st_lookup st k = None -> st_key_absent (slots st) k.
Proof.
  intros st k H i Hi Hu Hk. unfold st_lookup in H.
  destruct (find (st_used_key k) (slots st)) as [s|] eqn:Ef; [discriminate|].
  pose proof (find_none _ _ Ef (st_slot (slots st) i) (nth_In _ _ Hi)) as Hf.
  assert (Ht : st_used_key k (st_slot (slots st) i) = true) by (apply st_used_key_iff; split; assumption).
  congruence.
Qed.

Lemma st_lookup_some_intro : forall st k v i,
  sinv st -> st_holds (slots st) k v i -> st_lookup st k = Some v.
Proof.
  intros st k v i Hs (Hi & Hu & Hk & Hv).
  destruct (st_lookup st k) as [v'|] eqn:El.
  - destruct (st_lookup_some_elim st k v' El) as (j & Hj & Uj & Kj & Vj).
    assert (E : j = i) by (apply (st_keys_distinct st j i Hs); try assumption; congruence).
    subst j. congruence.
  - exfalso. apply (st_lookup_none_elim st k El i Hi Hu Hk).
Qed.

Lemma st_lookup_none_intro : forall st k,
  st_key_absent (slots st) k -> st_lookup st k = None.
Proof.
  intros st k Habs. destruct (st_lookup st k) as [v|] eqn:El; [|reflexivity].
  destruct (st_lookup_some_elim st k v El) as (j & Hj & Uj & Kj & _).
  exfalso. apply (Habs j Hj Uj Kj).
Qed.

Lemma st_lookup_transfer : forall st st' k k',
  sinv st -> sinv st' ->
  (forall v i, st_holds (slots st) k v i <-> st_holds (slots st') k' v i) ->
  st_lookup st' k' = st_lookup st k.
Proof.
  intros st st' k k' Hs Hs' Hiff.
  destruct (st_lookup st k) as [v|] eqn:El.
  - destruct (st_lookup_some_elim st k v El) as (i & Hi).
    apply (st_lookup_some_intro st' k' v i Hs'). apply Hiff; exact Hi.
  - destruct (st_lookup st' k') as [v'|] eqn:El'; [|reflexivity].
    destruct (st_lookup_some_elim st' k' v' El') as (i & Hi).
    rewrite (st_lookup_some_intro st k v' i Hs (proj2 (Hiff v' i) Hi)) in El. discriminate.
Qed.

Lemma st_holds_wrote : forall {sl sl' e h k0 v0 k v i}, st_wrote sl sl' e h k0 v0 ->
  (st_holds sl' k v i <->
   i < length sl /\ if e =? i then h <> None /\ k0 = k /\ v0 = v
                    else st_gh sl i <> None /\ st_gk sl i = k /\ st_gv sl i = v).
Proof. intros sl sl' e h k0 v0 k v i [L H K V]. unfold st_holds. rewrite L, H, K, V. destruct (e =? i); reflexivity. Qed.

Lemma st_hash_ok_wrote : forall {sl sl' e h k v},
  st_wrote sl sl' e h k v -> st_hash_ok sl -> (forall h0, h = Some h0 -> h0 = hashf k) -> st_hash_ok sl'.
Proof. intros sl sl' e h k v [_ H K _] Hok Hh x. rewrite H, K. destruct (e =? x); [apply Hh|apply Hok]. Qed.

Lemma st_lookup_wrote_same : forall {st st' e h k v},
  sinv st' -> st_wrote (slots st) (slots st') e h k v -> e < st_size st -> h <> None ->
  st_lookup st' k = Some v.
Proof.
  intros st st' e h k v Hs' W He Hh. apply (st_lookup_some_intro _ k v e Hs'). apply (st_holds_wrote W).
  rewrite Nat.eqb_refl. auto.
Qed.

Lemma st_lookup_wrote_other : forall {st st' e h k v} k',
  sinv st -> sinv st' -> st_wrote (slots st) (slots st') e h k v ->
  (h <> None -> k' <> k) -> (st_gh (slots st) e <> None -> k' <> st_gk (slots st) e) ->
  st_lookup st' k' = st_lookup st k'.
Proof.
  intros st st' e h k v k' Hs Hs' W Hnew Hold. apply st_lookup_transfer; try assumption.
  intros w j. rewrite (st_holds_wrote W). unfold st_holds. destruct (Nat.eqb_spec e j) as [<-|_]; [|reflexivity].
  split; intros (_ & U & K & _); [destruct (Hold U)|destruct (Hnew U)]; symmetry; exact K.
Qed.

Theorem st_put_new_lookup_same : forall st hash key val,
  sinv st -> nitems st < st_size st -> st_key_absent (slots st) key ->
  st_lookup (fst (st_put_new st hash key val)) key = Some val.
Proof.
  intros st hash key val Hs Hfree Habs. destruct (st_put_new st hash key val) as [st' e] eqn:E.
  destruct (st_put_new_spec Hs Hfree Habs E) as (Hs' & W & He & _).
  apply (st_lookup_wrote_same Hs' W He). discriminate.
Qed.

Theorem st_put_new_lookup_other : forall st hash key val k',
  sinv st -> nitems st < st_size st -> st_key_absent (slots st) key -> k' <> key ->
  st_lookup (fst (st_put_new st hash key val)) k' = st_lookup st k'.
Proof.
  intros st hash key val k' Hs Hfree Habs Hne. destruct (st_put_new st hash key val) as [st' e] eqn:E.
  destruct (st_put_new_spec Hs Hfree Habs E) as (Hs' & W & _ & Hfe & _).
  apply (st_lookup_wrote_other k' Hs Hs' W); [intros _; exact Hne|intros U; destruct (U Hfe)].
Qed.

Theorem st_remove_lookup_same : forall st i,
  sinv st -> i < st_size st -> st_gh (slots st) i <> None ->
  st_lookup (st_remove st i) (st_gk (slots st) i) = None.
Proof.
  intros st i Hs Hi Hu. destruct (st_remove_spec st i Hs Hi Hu) as (_ & [Hl Hgh Hgk _] & _).
  apply st_lookup_none_intro. intros j Hj Uj Kj. rewrite Hl in Hj. rewrite Hgh in Uj. rewrite Hgk in Kj.
  destruct (Nat.eqb_spec i j) as [E|NE]; [apply Uj; reflexivity|].
  apply NE. apply (st_keys_distinct st i j Hs); try assumption. symmetry; exact Kj.
Qed.

Theorem st_remove_lookup_other : forall st i k',
  sinv st -> i < st_size st -> st_gh (slots st) i <> None -> k' <> st_gk (slots st) i ->
  st_lookup (st_remove st i) k' = st_lookup st k'.
Proof.
  intros st i k' Hs Hi Hu Hne. destruct (st_remove_spec st i Hs Hi Hu) as (Hs' & W & _).
  apply (st_lookup_wrote_other k' Hs Hs' W); [intros U; destruct (U eq_refl)|intros _; exact Hne].
Qed.

Theorem st_set_val_lookup : forall st i v k',
  sinv st -> i < st_size st -> st_gh (slots st) i <> None ->
  st_lookup (st_set_val st i v) k' =
    if Z.eqb k' (st_gk (slots st) i) then Some v else st_lookup st k'.
Proof.
  intros st i v k' Hs Hi Hu.
  pose proof (sinv_set_val st i v Hs) as Hs'. pose proof (st_set_val_wrote st i v Hi) as W.
  destruct (Z.eqb_spec k' (st_gk (slots st) i)) as [->|NE].
  - exact (st_lookup_wrote_same Hs' W Hi Hu).
  - apply (st_lookup_wrote_other k' Hs Hs' W); intros _; exact NE.
Qed.

Lemma st_255_le_65535 : 255 <= 65535.
Proof. apply Nat.leb_le. vm_compute. reflexivity. Qed.

(* the table size never reaches the sentinel of the chosen index width *)
Lemma st_size_le_limit : forall size, size < idx_limit 2 -> size <= idx_limit (idx_type size).
Proof.
  intros size H. unfold idx_type. pose proof st_255_le_65535 as H0.
  (* each case fixes the two threshold tests; the sum of the two indicators is folded to the index type and
     idx_limit is evaluated at it by [change], so that lia sees 255 / 65535 / idx_limit 2 as atoms *)
  destruct (Nat.leb_spec 255 size) as [H1|H1]; destruct (Nat.leb_spec 65535 size) as [H2|H2].
  - change (1 + 1) with 2. lia.
  - change (1 + 0) with 1. change (idx_limit 1) with 65535. lia.
  - exfalso. lia.
  - change (0 + 0) with 0. change (idx_limit 0) with 255. lia.
Qed.

Theorem st_narrow_ok_sinv : forall st,
  sinv st -> st_size st < idx_limit 2 -> st_narrow_ok st = true.
Proof.
  intros st (ch & fl & G) Hsz. unfold st_size in Hsz.
  pose proof (st_size_le_limit _ Hsz) as Hlim.
  unfold st_narrow_ok. set (lim := idx_limit (idx_type (length (slots st)))) in *.
  assert (Hok : forall o, (forall x, o = Some x -> x < length (slots st)) -> st_idx_ok lim o = true).
  { intros [x|] H; [|reflexivity]. simpl. apply Nat.ltb_lt. specialize (H x eq_refl). lia. }
  apply andb_true_iff. split.
  - apply Hok. intros x E. apply (st_fl_lt G). apply st_hd_in. rewrite <- (gi_fh G). exact E.
  - apply forallb_forall. intros s Hs.
    destruct (In_nth _ _ st_dflt Hs) as (i & Hi & En).
    pose proof (fun y => st_links_lt G (y := y) Hi ltac:(discriminate)) as A.
    destruct (gi_perm G i Hi) as (C & D & _ & _).
    unfold st_gp, st_gn, st_gmt, st_gmf, st_slot in A, C, D. rewrite En in A, C, D.
    unfold st_slot_narrow_ok. rewrite (Hok (s_bprev s)), (Hok (s_bnext s)) by (intros x E; apply A; auto). simpl.
    apply andb_true_iff. split; apply Nat.ltb_lt; lia.
Qed.

Lemma st_idx_limit_2 : idx_limit 2 = 4294967295.
Proof. reflexivity. Qed.

Definition st_ekey (e : N * Z * Z) : Z := snd (fst e).
Definition st_ehash (e : N * Z * Z) : N := fst (fst e).

Fixpoint st_assoc (k : Z) (es : list (N * Z * Z)) : option Z :=
  match es with
  | [] => None
  | e :: r => if Z.eqb k (st_ekey e) then Some (snd e) else st_assoc k r
  end.

Lemma st_assoc_notin : forall k es, ~ In k (map st_ekey es) -> st_assoc k es = None.
Proof.
  intros k. induction es as [|e r IH]; intros H; simpl in *; [reflexivity|].
  destruct (Z.eqb_spec k (st_ekey e)) as [E|_]; [exfalso; apply H; left; symmetry; exact E|].
  apply IH. intro Hr. apply H. right; exact Hr.
Qed.

Definition st_used (sl : list slot) (i : nat) : Prop := st_gh sl i <> None.

(* the explicit insertion-order list of a run state *)
Definition st_order_ok (st : store) (order : list nat) : Prop :=
  NoDup order /\ forall i, In i order <-> i < st_size st /\ st_used (slots st) i.

(* the (key, value) pairs of a run state, in insertion order *)
Definition st_pairs (r : srun) : list (Z * Z) :=
  map (fun i => (st_gk (slots (r_st r)) i, st_gv (slots (r_st r)) i)) (r_order r).

Lemma st_nodup_app : forall (a b : list nat),
  NoDup a -> NoDup b -> (forall x, In x a -> ~ In x b) -> NoDup (a ++ b).
Proof.
  induction a as [|x a IH]; intros b Ha Hb Hd; simpl; [exact Hb|].
  apply NoDup_cons_iff in Ha as [Hx Ha]. constructor.
  - intro Hin. apply in_app_or in Hin. destruct Hin as [Hin|Hin]; [contradiction|].
    apply (Hd x (or_introl eq_refl) Hin).
  - apply IH; [exact Ha|exact Hb|]. intros y Hy. apply Hd. right; exact Hy.
Qed.

(* one Put of a new key into a table with room, seen from the run: the new slot goes to the end of the
   order, the contents gain the binding *)
Lemma st_put_new_run : forall st order f h k v st' e,
  sinv st -> st_order_ok st order -> (forall k', st_lookup st k' = f k') ->
  nitems st < st_size st -> f k = None -> st_put_new st h k v = (st', e) ->
  sinv st' /\ st_order_ok st' (order ++ [e]) /\
  (forall k', st_lookup st' k' = if Z.eqb k' k then Some v else f k') /\
  st_pairs (mkRun st' (order ++ [e])) = st_pairs (mkRun st order) ++ [(k, v)] /\
  st_wrote (slots st) (slots st') e (Some h) k v /\ nitems st' = S (nitems st).
Proof.
  intros st order f h k v st' e Hs [Hnd Hin] Hlk Hfree Habsent Eput.
  assert (Habs : st_key_absent (slots st) k) by (apply st_lookup_none_elim; rewrite Hlk; exact Habsent).
  destruct (st_put_new_spec Hs Hfree Habs Eput) as (Hs' & W & He & Hfe & Hn').
  pose proof W as [Hl Hgh Hgk Hgv].
  assert (Hfr : forall y, In y order -> e <> y) by (intros y Hy <-; apply Hin in Hy; apply (proj2 Hy); exact Hfe).
  split; [exact Hs'|]. split; [split|split; [|split; [|split; [exact W|exact Hn']]]].
  - apply st_nodup_app; [exact Hnd|constructor; [intros []|constructor]|].
    intros x Hx [E|[]]. exact (Hfr x Hx E).
  - intros i. unfold st_size, st_used. rewrite in_app_iff, Hin, Hl, Hgh. unfold st_size, st_used. simpl.
    destruct (Nat.eqb_spec e i) as [<-|NE]; [|tauto].
    split; [intros _; split; [exact He|discriminate]|auto].
  - intros k'. destruct (Z.eqb_spec k' k) as [->|NE]; [apply (st_lookup_wrote_same Hs' W He); discriminate|].
    rewrite (st_lookup_wrote_other k' Hs Hs' W (fun _ => NE)); [apply Hlk|intros U; destruct (U Hfe)].
  - unfold st_pairs. cbn [r_st r_order]. rewrite map_app. cbn [map]. rewrite Hgk, Hgv, Nat.eqb_refl. f_equal.
    apply map_ext_in. intros y Hy. rewrite Hgk, Hgv. destruct (Nat.eqb_spec e y) as [E|_]; [destruct (Hfr y Hy E)|reflexivity].
Qed.

(* EnsureSize re-Puts the entries one by one *)
Lemma st_put_all_inv : forall es st order f,
  sinv st -> st_order_ok st order -> (forall k, st_lookup st k = f k) ->
  nitems st + length es <= st_size st -> NoDup (map st_ekey es) ->
  (forall e, In e es -> f (st_ekey e) = None) ->
  let st' := fst (st_put_all st es) in
  let idx := snd (st_put_all st es) in
  sinv st' /\ st_order_ok st' (order ++ idx) /\
  (forall k, st_lookup st' k = match st_assoc k es with Some v => Some v | None => f k end) /\
  st_size st' = st_size st /\ nitems st' = nitems st + length es /\
  st_pairs (mkRun st' (order ++ idx)) = st_pairs (mkRun st order) ++ map (fun e => (st_ekey e, snd e)) es /\
  (st_hash_ok (slots st) -> (forall e, In e es -> st_ehash e = hashf (st_ekey e)) -> st_hash_ok (slots st')).
Proof.
  induction es as [|[[h k] v] r IH]; intros st order f Hs Hord Hlk Hcap Hnd Hf; cbv zeta.
  - simpl. rewrite !app_nil_r. split; [exact Hs|]. split; [exact Hord|]. repeat split; auto; lia.
  - simpl in Hcap, Hnd. apply NoDup_cons_iff in Hnd as [Hkni Hndr]. change (st_ekey (h, k, v)) with k in Hkni.
    simpl st_put_all. destruct (st_put_new st h k v) as [st1 e] eqn:Eput.
    destruct (st_put_new_run st order f h k v st1 e Hs Hord Hlk ltac:(lia) (Hf _ (or_introl eq_refl)) Eput)
      as (Hs1 & Hord1 & Hlk1 & Hp1 & W & Hn1).
    assert (Hsz1 : st_size st1 = st_size st) by exact (wr_len W).
    specialize (IH st1 (order ++ [e]) _ Hs1 Hord1 Hlk1). cbv zeta in IH.
    destruct (st_put_all st1 r) as [st2 idx]. cbn [fst snd] in *. rewrite <- app_assoc in IH. cbn [app] in IH.
    destruct IH as (I1 & I2 & I3 & I4 & I5 & I6 & I7); [lia|exact Hndr| |].
    { intros e' He'. destruct (Z.eqb_spec (st_ekey e') k) as [E|_]; [|apply Hf; right; exact He'].
      exfalso. apply Hkni. rewrite <- E. apply in_map; exact He'. }
    split; [exact I1|]. split; [exact I2|]. split; [|split; [congruence|split; [simpl; lia|split]]].
    + intros k0. rewrite I3. simpl. unfold st_ekey at 1. cbn [fst snd].
      destruct (Z.eqb_spec k0 k) as [->|_]; [rewrite (st_assoc_notin k r Hkni)|]; reflexivity.
    + rewrite I6, Hp1, <- app_assoc. reflexivity.
    + intros Hok Heh. apply I7; [|intros e' He'; apply Heh; right; exact He'].
      apply (st_hash_ok_wrote W Hok). intros h0 [= <-]. apply (Heh (h, k, v)). left; reflexivity.
Qed.

Lemma st_create_lookup : forall n k, st_lookup (st_create n) k = None.
Proof.
  intros n k. apply st_lookup_none_intro. intros i _ U. simpl in U. rewrite st_create_gh in U. destruct (U eq_refl).
Qed.

Definition st_rinv (r : srun) (f : Z -> option Z) : Prop :=
  sinv (r_st r) /\ st_hash_ok (slots (r_st r)) /\ st_order_ok (r_st r) (r_order r) /\
  forall k, st_lookup (r_st r) k = f k.

Lemma st_rinv_create : forall n, 0 < n -> st_rinv (mkRun (st_create n) []) (fun _ => None).
Proof.
  intros n Hn. split; [|split; [|split; [split|]]]; cbn [r_st r_order].
  - apply sinv_create; exact Hn.
  - intros x h Hx. simpl in Hx. rewrite st_create_gh in Hx. discriminate.
  - constructor.
  - intros i. split; [intros []|].
    intros [_ U]. unfold st_used in U. simpl in U. rewrite st_create_gh in U. apply U; reflexivity.
  - intros k. apply st_create_lookup.
Qed.

Lemma st_rebuild_inv : forall n es,
  0 < n -> length es <= n -> NoDup (map st_ekey es) ->
  let st' := fst (st_put_all (st_create n) es) in
  let idx := snd (st_put_all (st_create n) es) in
  sinv st' /\ st_order_ok st' idx /\ (forall k, st_lookup st' k = st_assoc k es) /\
  st_size st' = n /\ nitems st' = length es /\
  st_pairs (mkRun st' idx) = map (fun e => (st_ekey e, snd e)) es /\
  ((forall e, In e es -> st_ehash e = hashf (st_ekey e)) -> st_hash_ok (slots st')).
Proof.
  intros n es Hn Hlen Hnd. destruct (st_rinv_create n Hn) as (Hs & Hok & Hord & Hlk).
  assert (Hsz : st_size (st_create n) = n) by apply st_create_len.
  destruct (st_put_all_inv es (st_create n) [] _ Hs Hord Hlk) as (I1 & I2 & I3 & I4 & I5 & I6 & I7);
    [unfold st_size; simpl; rewrite st_create_len; exact Hlen|exact Hnd|reflexivity|]. cbv zeta.
  split; [exact I1|]. split; [exact I2|]. split; [|split; [congruence|split; [exact I5|split; [exact I6|exact (I7 Hok)]]]].
  intros k. rewrite I3. destruct (st_assoc k es); reflexivity.
Qed.

Theorem sinv_rebuild : forall n es,
  0 < n -> length es <= n -> NoDup (map st_ekey es) -> sinv (st_rebuild n es).
Proof. intros n es Hn Hlen Hnd. apply (st_rebuild_inv n es Hn Hlen Hnd). Qed.

Theorem st_rebuild_lookup_assoc : forall n es k,
  0 < n -> length es <= n -> NoDup (map st_ekey es) ->
  st_lookup (st_rebuild n es) k = st_assoc k es.
Proof. intros n es k Hn Hlen Hnd. apply (st_rebuild_inv n es Hn Hlen Hnd). Qed.

Lemma st_nodup_map_inj : forall (f : nat -> Z) l,
  NoDup l -> (forall x y, In x l -> In y l -> f x = f y -> x = y) -> NoDup (map f l).
Proof.
  intros f. induction l as [|a l IH]; intros Hnd Hinj; simpl; [constructor|].
  apply NoDup_cons_iff in Hnd as [Ha Hl]. constructor.
  - intro Hin. apply in_map_iff in Hin. destruct Hin as (y & Ey & Hy).
    assert (y = a) by (apply Hinj; [right; exact Hy|left; reflexivity|exact Ey]). subst y. contradiction.
  - apply IH; [exact Hl|]. intros x y Hx Hy. apply Hinj; right; assumption.
Qed.

Lemma st_entries_keys : forall st order, map st_ekey (st_entries st order) = map (st_gk (slots st)) order.
Proof. intros st order. unfold st_entries. rewrite map_map. reflexivity. Qed.

Lemma st_entries_nodup : forall st order,
  sinv st -> st_order_ok st order -> NoDup (map st_ekey (st_entries st order)).
Proof.
  intros st order Hs [Hnd Hin]. rewrite st_entries_keys. apply st_nodup_map_inj; [exact Hnd|].
  intros x y Hx Hy E. apply Hin in Hx. apply Hin in Hy. destruct Hx as [Hx Ux]. destruct Hy as [Hy Uy].
  apply (st_keys_distinct st x y Hs); assumption.
Qed.

Lemma st_assoc_entries_some : forall sl k v l,
  st_assoc k (map (st_entry sl) l) = Some v -> exists j, In j l /\ st_gk sl j = k /\ st_gv sl j = v.
Proof.
  intros sl k v. induction l as [|a l IH]; simpl; [discriminate|].
  unfold st_ekey at 1. cbn [st_entry fst snd].
  destruct (Z.eqb_spec k (st_gk sl a)) as [E|_].
  - intro H. injection H as <-. exists a. repeat split; [left; reflexivity|symmetry; exact E].
  - intro H. destruct (IH H) as (j & Hj & R). exists j. split; [right; exact Hj|exact R].
Qed.

Lemma st_assoc_entries_none : forall sl k l,
  st_assoc k (map (st_entry sl) l) = None -> forall j, In j l -> st_gk sl j <> k.
Proof.
  intros sl k. induction l as [|a l IH]; simpl; [intros _ j []|].
  unfold st_ekey at 1. cbn [st_entry fst snd].
  destruct (Z.eqb_spec k (st_gk sl a)) as [E|NE]; [discriminate|].
  intros H j [<-|Hj]; [intro E; apply NE; symmetry; exact E|apply IH; assumption].
Qed.

Lemma st_assoc_entries : forall st order k,
  sinv st -> st_order_ok st order -> st_assoc k (st_entries st order) = st_lookup st k.
Proof.
  intros st order k Hs [Hnd Hin]. unfold st_entries.
  destruct (st_assoc k (map (st_entry (slots st)) order)) as [v|] eqn:Ea.
  - destruct (st_assoc_entries_some _ _ _ _ Ea) as (j & Hj & Kj & Vj).
    apply Hin in Hj. destruct Hj as [Hj Uj]. symmetry.
    apply (st_lookup_some_intro st k v j Hs). unfold st_holds. auto.
  - symmetry. apply st_lookup_none_intro. intros j Hj Uj Kj.
    apply (st_assoc_entries_none _ _ _ Ea j); [|exact Kj]. apply Hin. split; assumption.
Qed.

Theorem st_rebuild_lookup : forall st order n k,
  sinv st -> st_order_ok st order -> 0 < n -> length order <= n ->
  st_lookup (st_rebuild n (st_entries st order)) k = st_lookup st k.
Proof.
  intros st order n k Hs Hord Hn Hlen.
  rewrite st_rebuild_lookup_assoc; [apply st_assoc_entries; assumption|exact Hn| |apply st_entries_nodup; assumption].
  unfold st_entries. rewrite map_length. exact Hlen.
Qed.

Lemma st_order_length : forall st order,
  sinv st -> st_order_ok st order -> length order = nitems st.
Proof.
  intros st order (ch & fl & G) [Hnd Hin]. unfold st_size, st_used in Hin.
  pose proof (gi_cnt G) as Hc. simpl in Hc.
  assert (Hnd2 : NoDup (order ++ fl)).
  { apply st_nodup_app; [exact Hnd|exact (gi_fl_nd G)|].
    intros x Hx Hf. apply Hin in Hx. apply (gi_fl_in G) in Hf. destruct Hx as [_ U]. destruct Hf as (_ & _ & F). contradiction. }
  assert (H1 : length (order ++ fl) <= length (slots st)).
  { apply st_nodup_bound; [exact Hnd2|]. intros x Hx. apply in_app_or in Hx. destruct Hx as [Hx|Hx].
    - apply Hin in Hx. tauto.
    - exact (st_fl_lt G Hx). }
  assert (H2 : length (slots st) <= length (order ++ fl)).
  { rewrite <- (seq_length (length (slots st)) 0). apply NoDup_incl_length; [apply seq_NoDup|].
    intros x Hx. apply in_seq in Hx. apply in_or_app.
    destruct (st_gh (slots st) x) as [h|] eqn:Eh.
    - left. apply Hin. split; [lia|rewrite Eh; discriminate].
    - right. apply (gi_fl_in G). repeat split; [lia|discriminate|exact Eh]. }
  rewrite app_length in *. lia.
Qed.

Lemma st_get_lookup : forall st k,
  sinv st -> st_hash_ok (slots st) ->
  match st_get st (hashf k) k with Some i => Some (st_gv (slots st) i) | None => None end = st_lookup st k.
Proof.
  intros st k Hs Hok. destruct (st_get st (hashf k) k) as [i|] eqn:Eg.
  - apply (st_get_correct st k i Hs Hok) in Eg. destruct Eg as (Hi & Hu & Hk). symmetry.
    apply (st_lookup_some_intro st k _ i Hs). unfold st_holds. auto.
  - symmetry. apply st_lookup_none_intro. intros i Hi Hu Hk.
    assert (E : st_get st (hashf k) k = Some i) by (apply (st_get_correct st k i Hs Hok); auto).
    congruence.
Qed.

Lemma st_grow_inv : forall r f req,
  st_rinv r f ->
  st_rinv (st_grow r req) f /\
  nitems (r_st (st_grow r req)) = nitems (r_st r) /\
  st_size (r_st (st_grow r req)) = Nat.max (nitems (r_st r)) (Nat.max req (st_size (r_st r))) /\
  st_pairs (st_grow r req) = st_pairs r.
Proof.
  intros r f req (Hs & Hok & Hord & Hlk). unfold st_grow.
  set (st := r_st r) in *. set (newsize := Nat.max (nitems st) (Nat.max req (st_size st))).
  destruct (Nat.eqb_spec newsize (st_size st)) as [E|NE].
  - split; [exact (conj Hs (conj Hok (conj Hord Hlk)))|]. split; [reflexivity|]. split; [symmetry; exact E|reflexivity].
  - assert (Hpos : 0 < st_size st) by (destruct Hs as (ch & fl & G); exact (gi_pos G)).
    pose proof (st_order_length st (r_order r) Hs Hord) as Hlen.
    assert (Hlen' : length (st_entries st (r_order r)) = nitems st) by (unfold st_entries; rewrite map_length; exact Hlen).
    pose proof (st_rebuild_inv newsize (st_entries st (r_order r)) ltac:(lia) ltac:(lia) (st_entries_nodup st (r_order r) Hs Hord)) as Hall.
    cbv zeta in Hall. destruct (st_put_all (st_create newsize) (st_entries st (r_order r))) as [st' ord'].
    cbn [fst snd r_st r_order] in *. destruct Hall as (I1 & I2 & I3 & I4 & I5 & I6 & I7).
    split; [split; [exact I1|split; [|split; [exact I2|]]]|split; [congruence|split; [exact I4|]]].
    + apply I7. intros e He. unfold st_entries in He. apply in_map_iff in He. destruct He as (i & <- & Hi).
      unfold st_ehash, st_ekey, st_entry. cbn [fst snd].
      apply (proj2 Hord) in Hi. destruct Hi as [_ Ui]. unfold st_used in Ui.
      destruct (st_gh (slots st) i) as [h|] eqn:Eh; [|exfalso; apply Ui; reflexivity].
      apply Hok. exact Eh.
    + intros k. rewrite I3, <- Hlk. apply (st_assoc_entries st (r_order r) k Hs Hord).
    + rewrite I6. unfold st_entries. rewrite map_map. reflexivity.
Qed.

(* PutAux grows a full table before it inserts: afterwards there is room, and nothing else has changed *)
Lemma st_room_inv : forall r f, st_rinv r f ->
  let r1 := if nitems (r_st r) =? st_size (r_st r) then st_grow r (2 * st_size (r_st r)) else r in
  st_rinv r1 f /\ nitems (r_st r1) < st_size (r_st r1) /\ st_pairs r1 = st_pairs r.
Proof.
  intros r f Hr. pose proof Hr as (Hs & _). destruct Hs as (ch & fl & G).
  destruct (Nat.eqb_spec (nitems (r_st r)) (st_size (r_st r))) as [E|NE]; cbv zeta.
  - destruct (st_grow_inv r f (2 * st_size (r_st r)) Hr) as (A & B & C & D).
    split; [exact A|]. split; [|exact D]. pose proof (gi_pos G). unfold st_size in *. lia.
  - split; [exact Hr|]. split; [|reflexivity].
    pose proof (gi_cnt G) as Hc. simpl in Hc. unfold st_size in *. lia.
Qed.

Lemma st_rinv_set_val : forall r f i v,
  st_rinv r f -> i < st_size (r_st r) -> st_used (slots (r_st r)) i ->
  st_rinv (mkRun (st_set_val (r_st r) i v) (r_order r))
          (fun k' => if Z.eqb k' (st_gk (slots (r_st r)) i) then Some v else f k').
Proof.
  intros r f i v (Hs & Hok & Hord & Hlk) Hi Hu. pose proof (st_set_val_wrote (r_st r) i v Hi) as W.
  split; [|split; [|split; [split|]]]; cbn [r_st r_order].
  - apply sinv_set_val; exact Hs.
  - apply (st_hash_ok_wrote W Hok). apply Hok.
  - exact (proj1 Hord).
  - intros x. unfold st_size, st_used. rewrite (wr_len W), (wr_gh W).
    destruct (Nat.eqb_spec i x) as [<-|_]; apply (proj2 Hord).
  - intros k'. rewrite (st_set_val_lookup (r_st r) i v k' Hs Hi Hu), Hlk. reflexivity.
Qed.

Lemma st_rinv_put_new : forall r f k v st' e,
  st_rinv r f -> nitems (r_st r) < st_size (r_st r) -> f k = None ->
  st_put_new (r_st r) (hashf k) k v = (st', e) ->
  st_rinv (mkRun st' (r_order r ++ [e])) (fun k' => if Z.eqb k' k then Some v else f k') /\
  st_pairs (mkRun st' (r_order r ++ [e])) = st_pairs r ++ [(k, v)].
Proof.
  intros r f k v st' e (Hs & Hok & Hord & Hlk) Hfree Habsent Eput.
  destruct (st_put_new_run _ _ f _ k v st' e Hs Hord Hlk Hfree Habsent Eput) as (Hs' & Hord' & Hlk' & Hp & W & _).
  split; [|exact Hp]. split; [exact Hs'|]. split; [|split; [exact Hord'|exact Hlk']].
  apply (st_hash_ok_wrote W Hok). intros h0 [= <-]. reflexivity.
Qed.

Lemma st_rinv_remove : forall r f i,
  st_rinv r f -> i < st_size (r_st r) -> st_used (slots (r_st r)) i ->
  st_rinv (mkRun (st_remove (r_st r) i) (st_remove_nat i (r_order r)))
          (fun k' => if Z.eqb k' (st_gk (slots (r_st r)) i) then None else f k').
Proof.
  intros r f i (Hs & Hok & [Hnd Hin] & Hlk) Hi Hu.
  destruct (st_remove_spec (r_st r) i Hs Hi Hu) as (Hs' & W & _). pose proof W as [Hl Hgh _ _].
  split; [|split; [|split; [split|]]]; cbn [r_st r_order].
  - exact Hs'.
  - apply (st_hash_ok_wrote W Hok). discriminate.
  - apply NoDup_filter; exact Hnd.
  - intros j. unfold st_size, st_used, st_remove_nat. rewrite filter_In, Hin, Hl, Hgh. unfold st_size, st_used.
    destruct (Nat.eqb_spec i j) as [<-|NE].
    + rewrite Nat.eqb_refl. simpl. split; [intros [_ [=]]|intros [_ U]; exfalso; apply U; reflexivity].
    + rewrite (proj2 (Nat.eqb_neq j i)) by congruence. simpl. tauto.
  - intros k'. destruct (Z.eqb_spec k' (st_gk (slots (r_st r)) i)) as [->|NE].
    + apply st_remove_lookup_same; assumption.
    + rewrite st_remove_lookup_other by assumption. apply Hlk.
Qed.

Lemma st_step_refines : forall r f op,
  st_rinv r f ->
  snd (st_step hashf r op) = snd (fm_step f op) /\
  st_rinv (fst (st_step hashf r op)) (fst (fm_step f op)).
Proof.
  intros r f op Hr. pose proof Hr as (Hs & Hok & Hord & Hlk).
  pose proof (fun k => st_get_lookup (r_st r) k Hs Hok) as Hgl.
  destruct op as [k v|k|k|req]; unfold st_step, fm_step; try specialize (Hgl k).
  - (* SPut *)
    destruct (st_get (r_st r) (hashf k) k) as [i|] eqn:Eg.
    + apply (st_get_correct (r_st r) k i Hs Hok) in Eg. destruct Eg as (Hi & Hu & <-).
      cbn [fst snd]. split; [rewrite Hgl; apply Hlk|]. apply st_rinv_set_val; assumption.
    + assert (Habsent : f k = None) by (rewrite <- Hlk, <- Hgl; reflexivity).
      destruct (st_room_inv r f Hr) as (Hr1 & Hfree1 & _). cbv zeta in Hr1, Hfree1.
      destruct (st_put_new _ (hashf k) k v) as [st2 e] eqn:Eput. cbn [fst snd].
      split; [symmetry; exact Habsent|]. exact (proj1 (st_rinv_put_new _ f k v st2 e Hr1 Hfree1 Habsent Eput)).
  - (* SGet *)
    cbn [fst snd]. split; [rewrite Hgl; apply Hlk|exact Hr].
  - (* SRemove *)
    destruct (st_get (r_st r) (hashf k) k) as [i|] eqn:Eg; cbn [fst snd]; (split; [rewrite Hgl; apply Hlk|]).
    + apply (st_get_correct (r_st r) k i Hs Hok) in Eg. destruct Eg as (Hi & Hu & <-).
      apply st_rinv_remove; assumption.
    + split; [exact Hs|split; [exact Hok|split; [exact Hord|]]].
      intros k'. destruct (Z.eqb_spec k' k) as [->|NE]; [symmetry; exact Hgl|apply Hlk].
  - (* SGrow *)
    cbn [fst snd]. split; [reflexivity|]. apply st_grow_inv; exact Hr.
Qed.

Lemma st_run_refines : forall ops r f,
  st_rinv r f -> st_run hashf r ops = fm_run f ops.
Proof.
  induction ops as [|op ops IH]; intros r f Hr; simpl; [reflexivity|].
  destruct (st_step_refines r f op Hr) as [Hout Hinv].
  destruct (st_step hashf r op) as [r' out]. destruct (fm_step f op) as [f' out'].
  cbn [fst snd] in *. rewrite Hout, (IH r' f' Hinv). reflexivity.
Qed.

Theorem st_run_correct : forall n ops, 0 < n ->
  st_run hashf (mkRun (st_create n) []) ops = fm_run (fun _ => None) ops.
Proof. intros n ops Hn. apply st_run_refines, st_rinv_create, Hn. Qed.

End WithHash.

(* The expected values below are the dumps printed by the C++ probe (real muscle Hashtable<int,int>
   with hash(k) = k/10, default table size 7) after the same operations:
   per table [size; numItems; freeHead] then per slot [hash; key; value; bprev; bnext; mapto; mfrom], -1 = invalid. *)

Definition st_ex_hf (k : Z) : N := Z.to_N (k / 10).
Definition st_ex_on (o : option nat) : Z := match o with Some i => Z.of_nat i | None => (-1)%Z end.
Definition st_ex_slot (s : slot) : list Z :=
  match s_hash s with
  | Some h => [Z.of_N h; s_key s; s_val s; st_ex_on (s_bprev s); st_ex_on (s_bnext s); Z.of_nat (s_mapto s); Z.of_nat (s_mfrom s)]
  | None => [(-1)%Z; 0%Z; 0%Z; st_ex_on (s_bprev s); st_ex_on (s_bnext s); Z.of_nat (s_mapto s); Z.of_nat (s_mfrom s)]
  end.
Definition st_ex_dump (st : store) : list (list Z) :=
  [Z.of_nat (length (slots st)); Z.of_nat (nitems st); st_ex_on (free_head st)] :: map st_ex_slot (slots st).
Fixpoint st_ex_exec (r : srun) (ops : list sop) : srun :=
  match ops with [] => r | op :: rest => st_ex_exec (fst (st_step st_ex_hf r op)) rest end.
Definition st_ex_after (ops : list sop) : store := r_st (st_ex_exec (mkRun (st_create 7) []) ops).

(* keys 10,11 share bucket 1 and occupy slots 1,0; Put 1 (bucket 0) finds its starter slot 0 taken by the other chain: SwapEntryMaps in PutAuxAux *)
Example st_ex_put_swap :
  st_ex_dump (st_ex_after [SPut 10 100; SPut 11 110; SPut 1 5]%Z) =
  ([[7; 3; 3]; [1; 11; 110; 1; (-1); 2; 2]; [1; 10; 100; (-1); 0; 1; 1]; [0; 1; 5; (-1); (-1); 0; 0]; [(-1); 0; 0; (-1); 4; 3; 3]; [(-1); 0; 0; 3; 5; 4; 4]; [(-1); 0; 0; 4; 6; 5; 5]; [(-1); 0; 0; 5; (-1); 6; 6]])%Z.
Proof. vm_compute. reflexivity. Qed.

(* Remove 10: the head of bucket 1 with a successor: SwapEntryMaps in RemoveEntry *)
Example st_ex_remove_head :
  st_ex_dump (st_ex_after [SPut 10 100; SPut 11 110; SPut 1 5; SPut 12 120; SPut 80 800; SPut 21 210; SGet 80; SGet 13; SRemove 10]%Z) =
  ([[7; 5; 1]; [1; 11; 110; 3; (-1); 2; 5]; [(-1); 0; 0; (-1); 6; 4; 4]; [0; 1; 5; (-1); (-1); 5; 0]; [1; 12; 120; 4; 0; 3; 3]; [8; 80; 800; (-1); 3; 1; 1]; [2; 21; 210; (-1); (-1); 0; 2]; [(-1); 0; 0; 1; (-1); 6; 6]])%Z.
Proof. vm_compute. reflexivity. Qed.

(* eighth Put on a full table of 7: rebuild into 14 slots in insertion order, then insert *)
Example st_ex_grow :
  st_ex_dump (st_ex_after [SPut 10 100; SPut 11 110; SPut 1 5; SPut 12 120; SPut 80 800; SPut 21 210; SGet 80; SGet 13; SRemove 10; SRemove 12; SRemove 1; SPut 30 300; SPut 40 400; SPut 50 500; SPut 60 600; SPut 2 20]%Z) =
  ([[14; 8; 7]; [0; 2; 20; (-1); (-1); 0; 0]; [1; 11; 110; (-1); (-1); 1; 1]; [2; 21; 210; (-1); (-1); 2; 2]; [3; 30; 300; (-1); (-1); 3; 3]; [4; 40; 400; (-1); (-1); 4; 4]; [5; 50; 500; (-1); (-1); 5; 5]; [6; 60; 600; (-1); (-1); 6; 6]; [(-1); 0; 0; (-1); 9; 7; 7]; [8; 80; 800; (-1); (-1); 8; 8]; [(-1); 0; 0; 7; 10; 9; 9]; [(-1); 0; 0; 9; 11; 10; 10]; [(-1); 0; 0; 10; 12; 11; 11]; [(-1); 0; 0; 11; 13; 12; 12]; [(-1); 0; 0; 12; (-1); 13; 13]])%Z.
Proof. vm_compute. reflexivity. Qed.

(* EnsureSize(20) with 6 items *)
Example st_ex_ensure :
  st_ex_dump (st_ex_after [SPut 10 100; SPut 11 110; SPut 1 5; SPut 12 120; SPut 80 800; SPut 21 210; SGet 80; SGet 13; SRemove 10; SRemove 12; SRemove 1; SPut 30 300; SPut 40 400; SPut 50 500; SPut 60 600; SPut 2 20; SPut 70 700; SGet 70; SRemove 11; SRemove 80; SRemove 70; SGrow 20%nat]%Z) =
  ([[20; 6; 1]; [0; 2; 20; (-1); (-1); 0; 0]; [(-1); 0; 0; (-1); 7; 1; 1]; [2; 21; 210; (-1); (-1); 2; 2]; [3; 30; 300; (-1); (-1); 3; 3]; [4; 40; 400; (-1); (-1); 4; 4]; [5; 50; 500; (-1); (-1); 5; 5]; [6; 60; 600; (-1); (-1); 6; 6]; [(-1); 0; 0; 1; 8; 7; 7]; [(-1); 0; 0; 7; 9; 8; 8]; [(-1); 0; 0; 8; 10; 9; 9]; [(-1); 0; 0; 9; 11; 10; 10]; [(-1); 0; 0; 10; 12; 11; 11]; [(-1); 0; 0; 11; 13; 12; 12]; [(-1); 0; 0; 12; 14; 13; 13]; [(-1); 0; 0; 13; 15; 14; 14]; [(-1); 0; 0; 14; 16; 15; 15]; [(-1); 0; 0; 15; 17; 16; 16]; [(-1); 0; 0; 16; 18; 17; 17]; [(-1); 0; 0; 17; 19; 18; 18]; [(-1); 0; 0; 18; (-1); 19; 19]])%Z.
Proof. vm_compute. reflexivity. Qed.

Example st_ex_narrow : st_narrow_ok (st_ex_after [SPut 10 100; SPut 11 110; SPut 1 5; SRemove 10]%Z) = true.
Proof. vm_compute. reflexivity. Qed.

Example st_ex_idx_type : (idx_type 254, idx_type 255, idx_type 65534, idx_type 65535) = (0, 1, 1, 2).
Proof. vm_compute. reflexivity. Qed.
