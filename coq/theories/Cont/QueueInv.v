(* C16 -- the representation invariant of the Queue model; RemoveHead and RemoveTail. *)
From Coq Require Import List Arith ZArith Bool Lia ZifyBool.
From Muscle Require Import Cont.QueueModel Cont.QueueLemmas.
Import ListNotations.
Local Open Scope nat_scope.

Ltac qunf :=
  unfold getu, setu, set_raw, intern, next_index, prev_index, qsize in *;
  cbv zeta in *; cbn [st arr cnt head tail inl] in *.

Section Inv.
Variables (owning : bool) (sq : nat).

(* storage kind vs. array length: _queue==NULL has no slots, the inline array has exactly
   ARRAYITEMS(_smallQueue) slots, a heap array is never shorter than the inline one *)
Definition store_ok (q : q1) : Prop :=
  match st q with SNull => qsize q = 0 | SSmall => qsize q = sq | SHeap => True end.

(* owning items: every slot outside the live window holds the default item.  Slots outside
   the window are exactly the user indices cnt .. qsize-1 (see [inv_outside_window]). *)
Definition clean (q : q1) : Prop :=
  owning = true -> forall i, cnt q <= i < qsize q -> getu q i = dflt.

(* the in-object array while it is not the active one: present, and all default items for owning types *)
Definition inl_ok (q : q1) : Prop :=
  st q <> SSmall ->
  length (inl q) = sq /\ (owning = true -> forall i, i < sq -> nth i (inl q) dflt = dflt).

Record inv (q : q1) : Prop := mkInv {
  inv_sq : 0 < sq;     (* ARRAYITEMS(_smallQueue) >= 1 *)
  inv_cnt : cnt q <= qsize q;
  inv_head : 0 < qsize q -> head q < qsize q;
  inv_tail : 0 < cnt q -> tail q = intern q (cnt q - 1);
  inv_store : store_ok q;
  inv_clean : clean q;
  inv_inl : inl_ok q }.

Lemma inv_empty jk : 0 < sq -> inv (empty_q owning jk sq).
Proof.
  intros Hsq. constructor; try (cbn; lia).
  - intros _ i Hi. cbn in Hi. lia.
  - intros _. unfold empty_q. cbn [inl]. split; [apply repeat_length|].
    intros Ho i Hi. rewrite nth_repeat'. unfold fresh. rewrite Ho. dif; reflexivity.
Qed.

Lemma store_null_arr q : inv q -> st q = SNull -> arr q = [].
Proof.
  intros I E. pose proof (inv_store q I) as S. unfold store_ok in S. rewrite E in S.
  apply length_zero_iff_nil. exact S.
Qed.

Lemma inv_hd q : inv q -> 0 < cnt q -> head q < qsize q.
Proof. intros I H. apply (inv_head q I). pose proof (inv_cnt q I). lia. Qed.

(* the slot-level reading of [clean] *)
Lemma inv_outside_window q : inv q -> owning = true ->
  forall s, s < qsize q -> (forall i, i < cnt q -> intern q i <> s) -> nth s (arr q) dflt = dflt.
Proof.
  intros I Ho s Hs Hout. assert (Hh : head q < qsize q) by (apply (inv_head q I); lia).
  rewrite nth_arr_getu by assumption.
  destruct (intern_extern q s Hh Hs) as [L E].
  apply (inv_clean q I Ho). split; [|exact L].
  destruct (le_lt_dec (cnt q) (extern q s)) as [|Lt]; [assumption|].
  exfalso. apply (Hout _ Lt). exact E.
Qed.

(* the storage part of the invariant does not see the window move *)
Lemma inv_window q q' :
  inv q -> st q' = st q -> qsize q' = qsize q -> inl q' = inl q ->
  cnt q' <= qsize q -> (0 < qsize q -> head q' < qsize q) -> (0 < cnt q' -> tail q' = intern q' (cnt q' - 1)) ->
  (owning = true -> forall i, cnt q' <= i < qsize q -> getu q' i = dflt) -> inv q'.
Proof.
  intros I Hs Hq Hi Hc Hh Ht Hd. constructor; unfold store_ok, clean, inl_ok; rewrite ?Hs, ?Hq, ?Hi; try assumption.
  - exact (inv_sq q I).
  - exact (inv_store q I).
  - exact (inv_inl q I).
Qed.

Lemma inv_same_shape q q' :
  inv q -> st q' = st q -> qsize q' = qsize q -> cnt q' = cnt q -> head q' = head q ->
  tail q' = tail q -> inl q' = inl q ->
  (forall i, cnt q <= i < qsize q -> getu q' i = getu q i) -> inv q'.
Proof.
  intros I Hs Hq Hc Hh Ht Hi Hg. apply (inv_window q); try assumption; rewrite ?Hc, ?Hh, ?Ht.
  - exact (inv_cnt q I).
  - exact (inv_head q I).
  - intros H. rewrite (intern_congr q q') by assumption. exact (inv_tail q I H).
  - intros Ho i Hi'. rewrite Hg by exact Hi'. exact (inv_clean q I Ho i Hi').
Qed.

Lemma inv_setu q i v : inv q -> i < cnt q -> inv (setu q i v).
Proof.
  intros I Hi. pose proof (inv_cnt q I). pose proof (inv_hd q I ltac:(lia)).
  apply (inv_same_shape q); autorewrite with qdb; try reflexivity; try assumption.
  intros j Hj. rewrite getu_setu by lia. dif; fin.
Qed.

Lemma abs_setu q i v : inv q -> i < cnt q -> abs (setu q i v) = upd (abs q) i v.
Proof.
  intros I Hi. pose proof (inv_cnt q I). pose proof (inv_hd q I ltac:(lia)).
  apply abs_ext; autorewrite with qdb nthdb; [reflexivity|].
  intros j Hj. autorewrite with nthdb in Hj. rewrite getu_setu by lia.
  rewrite nth_upd, nth_abs by lia. autorewrite with nthdb. dif; fin.
Qed.

Lemma getu_abs q i : i < cnt q -> getu q i = nth i (abs q) 0%Z.
Proof. intros. symmetry. apply nth_abs. assumption. Qed.

Lemma remove_head_eq q : 0 < cnt q ->
  remove_head owning q =
  clear_slot owning (mkQ (st q) (arr q) (cnt q - 1) (next_index q (head q)) (tail q) (inl q)) (head q).
Proof. intros H. unfold remove_head. destruct (cnt q); [lia|]. cbn [Nat.sub]. rewrite Nat.sub_0_r. reflexivity. Qed.

Lemma remove_tail_eq q : 0 < cnt q ->
  remove_tail owning q =
  clear_slot owning (mkQ (st q) (arr q) (cnt q - 1) (head q) (prev_index q (tail q)) (inl q)) (tail q).
Proof. intros H. unfold remove_tail. destruct (cnt q); [lia|]. cbn [Nat.sub]. rewrite Nat.sub_0_r. reflexivity. Qed.

Lemma remove_head_shape q : inv q -> 0 < cnt q ->
  let q' := remove_head owning q in
  st q' = st q /\ qsize q' = qsize q /\ cnt q' = cnt q - 1 /\ head q' = next_index q (head q) /\
  tail q' = tail q /\ inl q' = inl q /\
  (forall i, i < qsize q ->
     getu q' i = if i + 1 <? qsize q then getu q (i + 1) else if owning then dflt else getu q 0).
Proof.
  intros I Hc q'. subst q'. rewrite remove_head_eq by assumption.
  pose proof (inv_cnt q I). pose proof (inv_hd q I Hc).
  unfold clear_slot. destruct owning.
  - repeat split; autorewrite with qdb; try reflexivity.
    intros i Hi. qunf. rewrite ?upd_length, ?nth_upd. difh; fin.
  - repeat split; try reflexivity.
    intros i Hi. qunf. difh; fin.
Qed.

Lemma remove_tail_shape q : inv q -> 0 < cnt q ->
  let q' := remove_tail owning q in
  st q' = st q /\ qsize q' = qsize q /\ cnt q' = cnt q - 1 /\ head q' = head q /\
  tail q' = prev_index q (tail q) /\ inl q' = inl q /\
  (forall i, i < qsize q ->
     getu q' i = if owning && (i =? cnt q - 1) then dflt else getu q i).
Proof.
  intros I Hc q'. subst q'. rewrite remove_tail_eq by assumption.
  pose proof (inv_cnt q I). pose proof (inv_hd q I Hc). pose proof (inv_tail q I Hc) as Ht.
  unfold clear_slot. destruct owning.
  - repeat split; autorewrite with qdb; try reflexivity.
    intros i Hi. rewrite Ht. qunf. rewrite ?upd_length, ?nth_upd. difh; fin.
  - repeat split; try reflexivity.
Qed.

Lemma inv_remove_head q : inv q -> 0 < cnt q -> inv (remove_head owning q).
Proof.
  intros I Hc. destruct (remove_head_shape q I Hc) as (Hs & Hq & Hn & Hh & Ht & Hl & Hg).
  pose proof (inv_cnt q I). pose proof (inv_hd q I Hc) as Hd. pose proof (inv_tail q I Hc) as Htl.
  apply (inv_window q); try assumption; rewrite ?Hn, ?Hh, ?Ht.
  - lia.
  - intros _. apply next_lt. lia.
  - rewrite Htl. intros Hc'. clear - Hd H Hc' Hq Hh. qunf. rewrite Hq, Hh. qunf. dif; fin.
  - intros Ho i Hi. rewrite Hg by lia. rewrite Ho.
    dif; [|reflexivity]. apply (inv_clean q I Ho). lia.
Qed.

Lemma abs_remove_head q : inv q -> 0 < cnt q -> abs q = getu q 0 :: abs (remove_head owning q).
Proof.
  intros I Hc. destruct (remove_head_shape q I Hc) as (Hs & Hq & Hn & Hh & Ht & Hl & Hg).
  pose proof (inv_cnt q I).
  apply abs_ext; cbn [length]; autorewrite with nthdb; [lia|].
  intros i Hi. cbn [length] in Hi. autorewrite with nthdb in Hi.
  rewrite nth_cons'. dif; [f_equal; lia|].
  rewrite nth_abs by lia. rewrite Hg by lia. dif; fin.
Qed.

Lemma inv_remove_tail q : inv q -> 0 < cnt q -> inv (remove_tail owning q).
Proof.
  intros I Hc. destruct (remove_tail_shape q I Hc) as (Hs & Hq & Hn & Hh & Ht & Hl & Hg).
  pose proof (inv_cnt q I). pose proof (inv_hd q I Hc) as Hd. pose proof (inv_tail q I Hc) as Htl.
  apply (inv_window q); try assumption; rewrite ?Hn, ?Hh, ?Ht.
  - lia.
  - exact (inv_head q I).
  - rewrite Htl. intros Hc'. rewrite prev_intern by lia.
    apply intern_congr; [symmetry; exact Hh|symmetry; exact Hq].
  - intros Ho i Hi. rewrite Hg by lia. rewrite Ho.
    dif; [reflexivity|]. apply (inv_clean q I Ho). lia.
Qed.

Lemma abs_remove_tail q : inv q -> 0 < cnt q ->
  abs (remove_tail owning q) = firstn (cnt q - 1) (abs q).
Proof.
  intros I Hc. destruct (remove_tail_shape q I Hc) as (Hs & Hq & Hn & Hh & Ht & Hl & Hg).
  pose proof (inv_cnt q I).
  apply abs_ext; autorewrite with nthdb; [lia|].
  intros i Hi. autorewrite with nthdb in Hi. rewrite Hg by lia.
  autorewrite with nthdb. rewrite nth_abs by lia. rewrite andb_comm. dif; fin.
Qed.

Definition in_win (q : q1) (s : nat) : bool :=
  if head q + cnt q <=? qsize q then (head q <=? s) && (s <? head q + cnt q)
  else (head q <=? s) || (s <? head q + cnt q - qsize q).

Lemma in_win_intern q i : head q < qsize q -> cnt q <= qsize q -> i < qsize q ->
  in_win q (intern q i) = (i <? cnt q).
Proof. unfold in_win, intern. cbv zeta. intros. dif; lia. Qed.

Lemma clean_slots q : inv q -> owning = true ->
  forall s, s < qsize q -> in_win q s = false -> nth s (arr q) dflt = dflt.
Proof.
  intros I Ho s Hs Hw. assert (Hh : head q < qsize q) by (apply (inv_head q I); lia).
  pose proof (inv_cnt q I).
  destruct (intern_extern q s Hh Hs) as [L E].
  rewrite nth_arr_getu by assumption. apply (inv_clean q I Ho).
  rewrite <- E, in_win_intern in Hw by assumption. lia.
Qed.

Lemma clean_of_slots q : head q < qsize q -> cnt q <= qsize q ->
  (owning = true -> forall s, s < qsize q -> in_win q s = false -> nth s (arr q) dflt = dflt) -> clean q.
Proof.
  intros Hh Hc H Ho i Hi. unfold getu. apply (H Ho).
  - apply intern_lt; lia.
  - rewrite in_win_intern by lia. lia.
Qed.

Lemma all_dflt q : inv q -> cnt q = 0 -> owning = true ->
  forall s, s < qsize q -> nth s (arr q) dflt = dflt.
Proof.
  intros I Hc Ho s Hs. apply inv_outside_window; try assumption. intros i Hi. lia.
Qed.

(* [inv] spelled out at the level of raw slots (this is the invariant as the property states it) *)
Lemma inv_slots_iff q :
  inv q <->
  (0 < sq /\ cnt q <= qsize q /\ (0 < qsize q -> head q < qsize q) /\
   (0 < cnt q -> tail q = intern q (cnt q - 1)) /\
   match st q with SNull => arr q = [] | SSmall => qsize q = sq | SHeap => True end /\
   (owning = true -> forall s, s < qsize q -> (forall i, i < cnt q -> intern q i <> s) ->
      nth s (arr q) dflt = dflt) /\
   (st q <> SSmall ->
      length (inl q) = sq /\ (owning = true -> forall i, i < sq -> nth i (inl q) dflt = dflt))).
Proof.
  split.
  - intros I. split; [exact (inv_sq q I)|]. split; [exact (inv_cnt q I)|].
    split; [exact (inv_head q I)|]. split; [exact (inv_tail q I)|]. split.
    + pose proof (inv_store q I) as S. unfold store_ok in S. destruct (st q) eqn:E; try exact S.
      apply length_zero_iff_nil. exact S.
    + split; [intros Ho; apply inv_outside_window; assumption|exact (inv_inl q I)].
  - intros (H0&H1&H2&H3&H4&H5&H6). constructor; try assumption.
    + unfold store_ok. destruct (st q); try exact H4. unfold qsize. rewrite H4. reflexivity.
    + intros Ho i Hi. unfold getu. assert (Hh : head q < qsize q) by (apply H2; lia).
      apply (H5 Ho).
      * apply intern_lt; lia.
      * intros i' Hi' E. apply intern_inj in E; lia.
Qed.

End Inv.
