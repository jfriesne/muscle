(* C20 -- ReschedulePulseChild: what it changes and which invariants it keeps. *)
From Coq Require Import List Arith NArith Bool.
From Muscle Require Import Pulse.PulseModel Pulse.PulseInv Pulse.PulseForest.
Import ListNotations.

(* the first half of ReschedulePulseChild: take c off the list it is on, set _curList *)
Definition unlink (m : nmap) (p c : nat) (w : lst) : nmap :=
  let cl := cur (m c) in
  let m1 := upd m p (set_list (m p) cl (remove_id c (get_list (m p) cl))) in
  upd m1 c (set_cur (m1 c) w).

Lemma resched_unfold f m p c w :
  resched (S f) m p c w =
  if lst_eqb w (cur (m c)) && negb (lst_eqb (cur (m c)) LSched) then Some m
  else
    let m2 := unlink m p c w in
    match w with
    | LSched => Some (upd m2 p (set_ls (m2 p) (ins_sched m2 c (ls (m2 p)))))
    | LRecalc =>
      match (match parent (m2 p) with Some g => resched f m2 g p LRecalc | None => Some m2 end) with
      | None => None
      | Some m3 => Some (upd m3 p (set_lr (m3 p) (c :: lr (m3 p))))
      end
    | LUnsched => Some (upd m2 p (set_lu (m2 p) (c :: lu (m2 p))))
    | LNone => Some m2
    end.
Proof. reflexivity. Qed.

Section Unlink.
  Variables (m : nmap) (p c : nat) (w : lst).
  Hypothesis Hpc : p <> c.

  Lemma unlink_c : unlink m p c w c = set_cur (m c) w.
  Proof. unfold unlink. rewrite upd_same. rewrite upd_other by congruence. reflexivity. Qed.

  Lemma unlink_p : unlink m p c w p = set_list (m p) (cur (m c)) (remove_id c (get_list (m p) (cur (m c)))).
  Proof. unfold unlink. rewrite upd_other by congruence. now rewrite upd_same. Qed.

  Lemma unlink_o y : y <> p -> y <> c -> unlink m p c w y = m y.
  Proof. intros H1 H2. unfold unlink. now rewrite !upd_other by congruence. Qed.

  Lemma unlink_scalars y :
    parent (unlink m p c w y) = parent (m y) /\ agg (unlink m p c w y) = agg (m y) /\
    sched (unlink m p c w y) = sched (m y) /\ valid (unlink m p c w y) = valid (m y) /\
    alive (unlink m p c w y) = alive (m y) /\ ngt (unlink m p c w y) = ngt (m y) /\ npl (unlink m p c w y) = npl (m y).
  Proof.
    destruct (Nat.eq_dec y c) as [->|Hc]; [rewrite unlink_c; repeat split|].
    destruct (Nat.eq_dec y p) as [->|Hp]; [|rewrite unlink_o by assumption; repeat split].
    rewrite unlink_p. destruct (set_list_scalars (m p) (cur (m c)) (remove_id c (get_list (m p) (cur (m c)))))
      as (a1&a2&a3&a4&a5&_&a7&a8). repeat split; assumption.
  Qed.
  Lemma unlink_parent y : parent (unlink m p c w y) = parent (m y).
  Proof. apply unlink_scalars. Qed.
  Lemma unlink_agg y : agg (unlink m p c w y) = agg (m y).
  Proof. apply unlink_scalars. Qed.
  Lemma unlink_sched y : sched (unlink m p c w y) = sched (m y).
  Proof. apply unlink_scalars. Qed.
  Lemma unlink_valid y : valid (unlink m p c w y) = valid (m y).
  Proof. apply unlink_scalars. Qed.
  Lemma unlink_alive y : alive (unlink m p c w y) = alive (m y).
  Proof. apply unlink_scalars. Qed.
  Lemma unlink_cur_c : cur (unlink m p c w c) = w.
  Proof. now rewrite unlink_c. Qed.
  Lemma unlink_cur_o y : y <> c -> cur (unlink m p c w y) = cur (m y).
  Proof.
    intro Hc. destruct (Nat.eq_dec y p) as [->|Hp]; [rewrite unlink_p; apply set_list_cur|].
    now rewrite unlink_o.
  Qed.

  Lemma unlink_list_c l : get_list (unlink m p c w c) l = get_list (m c) l.
  Proof. rewrite unlink_c. now destruct l. Qed.

  Lemma unlink_list_p_same :
    cur (m c) <> LNone ->
    get_list (unlink m p c w p) (cur (m c)) = remove_id c (get_list (m p) (cur (m c))).
  Proof. intro H. rewrite unlink_p. now apply get_set_list_same. Qed.

  Lemma unlink_list_p_other l :
    l <> cur (m c) -> get_list (unlink m p c w p) l = get_list (m p) l.
  Proof. intro H. rewrite unlink_p. apply get_set_list_other. congruence. Qed.

  Lemma unlink_list_o q l : q <> p -> get_list (unlink m p c w q) l = get_list (m q) l.
  Proof.
    intro Hq. destruct (Nat.eq_dec q c) as [->|Hc]; [apply unlink_list_c|]. now rewrite unlink_o.
  Qed.

  Lemma unlink_in q l x :
    In x (get_list (unlink m p c w q) l) <->
    In x (get_list (m q) l) /\ ~ (q = p /\ l = cur (m c) /\ x = c).
  Proof.
    destruct (Nat.eq_dec q p) as [->|Hq].
    - destruct (lst_eq_dec l (cur (m c))) as [->|Hl].
      + destruct (lst_eq_dec (cur (m c)) LNone) as [Hn|Hn].
        * rewrite Hn. simpl. tauto.
        * rewrite unlink_list_p_same by assumption. rewrite remove_id_in. intuition.
      + rewrite unlink_list_p_other by assumption. intuition.
    - rewrite unlink_list_o by assumption. intuition.
  Qed.
End Unlink.

Definition same_scalars (m m' : nmap) : Prop :=
  forall y, parent (m' y) = parent (m y) /\ agg (m' y) = agg (m y) /\ sched (m' y) = sched (m y) /\
            valid (m' y) = valid (m y) /\ alive (m' y) = alive (m y) /\
            ngt (m' y) = ngt (m y) /\ npl (m' y) = npl (m y).

Lemma same_scalars_refl m : same_scalars m m.
Proof. intro y. repeat split. Qed.

Lemma same_scalars_trans m1 m2 m3 : same_scalars m1 m2 -> same_scalars m2 m3 -> same_scalars m1 m3.
Proof.
  intros H1 H2 y. destruct (H1 y) as (a1&a2&a3&a4&a5&a6&a7). destruct (H2 y) as (b1&b2&b3&b4&b5&b6&b7).
  repeat split; congruence.
Qed.

Lemma same_scalars_unlink m p c w : p <> c -> same_scalars m (unlink m p c w).
Proof. intros Hpc y. now apply unlink_scalars. Qed.

Lemma same_scalars_upd_list m x l v : same_scalars m (upd m x (set_list (m x) l v)).
Proof.
  intro y. destruct (upd_cases m x (set_list (m x) l v) y) as [[-> ->]|[Hne ->]]; [|repeat split].
  destruct (set_list_scalars (m x) l v) as (a1&a2&a3&a4&a5&a6&a7&a8). repeat split; assumption.
Qed.

Lemma same_scalars_set_ls m x v : same_scalars m (upd m x (set_ls (m x) v)).
Proof. exact (same_scalars_upd_list m x LSched v). Qed.
Lemma same_scalars_set_lu m x v : same_scalars m (upd m x (set_lu (m x) v)).
Proof. exact (same_scalars_upd_list m x LUnsched v). Qed.
Lemma same_scalars_set_lr m x v : same_scalars m (upd m x (set_lr (m x) v)).
Proof. exact (same_scalars_upd_list m x LRecalc v). Qed.

(* induction along the upward propagation: no-op; unlink and link on list w; or, towards the needs-recalc list,
   first the same for p on p's own parent *)
Section ReschedInd.
  Variable P : nmap -> nat -> nat -> lst -> nmap -> Prop.
  Hypothesis P_same : forall m p c, cur (m c) <> LSched -> P m p c (cur (m c)) m.
  Hypothesis P_link : forall m p c w,
    parent (m c) = Some p -> (forall x, parent (m x) <> Some x) -> p <> c -> (w = cur (m c) -> w = LSched) -> w <> LRecalc ->
    let m2 := unlink m p c w in
    P m p c w match w with
              | LSched => upd m2 p (set_ls (m2 p) (ins_sched m2 c (ls (m2 p))))
              | LUnsched => upd m2 p (set_lu (m2 p) (c :: lu (m2 p)))
              | _ => m2
              end.
  Hypothesis P_up : forall m p c m3,
    parent (m c) = Some p -> (forall x, parent (m x) <> Some x) -> p <> c -> cur (m c) <> LRecalc ->
    let m2 := unlink m p c LRecalc in
    match parent (m p) with
    | None => m3 = m2
    | Some g => (exists f, resched f m2 g p LRecalc = Some m3) /\ P m2 g p LRecalc m3
    end ->
    P m p c LRecalc (upd m3 p (set_lr (m3 p) (c :: lr (m3 p)))).

  Lemma resched_ind : forall f m p c w m',
    parent (m c) = Some p -> (forall x, parent (m x) <> Some x) -> resched f m p c w = Some m' -> P m p c w m'.
  Proof.
    induction f as [|f IH]; intros m p c w m' Hpar Hns H; [discriminate|].
    assert (Hpc : p <> c) by (intro; subst; now apply (Hns c)).
    rewrite resched_unfold in H.
    destruct (lst_eqb w (cur (m c)) && negb (lst_eqb (cur (m c)) LSched)) eqn:Hno.
    { inversion H; subst m'. apply andb_prop in Hno. destruct Hno as [H1 H2]. apply lst_eqb_eq in H1. subst w.
      apply P_same. apply lst_eqb_neq. now destruct (lst_eqb (cur (m c)) LSched). }
    assert (Hact : w = cur (m c) -> w = LSched).
    { intros ->. rewrite lst_eqb_refl in Hno. destruct (lst_eqb (cur (m c)) LSched) eqn:E; [now apply lst_eqb_eq|discriminate]. }
    cbv zeta in H.
    destruct (lst_eq_dec w LRecalc) as [->|Hw].
    2: { pose proof (P_link m p c w Hpar Hns Hpc Hact Hw) as HP. destruct w; try congruence; inversion H; subst; exact HP. }
    assert (Hc : cur (m c) <> LRecalc) by (intro E; specialize (Hact (eq_sym E)); discriminate).
    rewrite unlink_parent in H by assumption.
    destruct (parent (m p)) as [g|] eqn:Hg.
    - destruct (resched f (unlink m p c LRecalc) g p LRecalc) as [m3|] eqn:Hr; [|discriminate]. inversion H; subst m'.
      apply (P_up m p c m3 Hpar Hns Hpc Hc). rewrite Hg. split; [eauto|].
      apply (IH _ _ _ _ _); [now rewrite unlink_parent| |exact Hr].
      intro x. rewrite unlink_parent by assumption. apply Hns.
    - inversion H; subst m'. apply (P_up m p c _ Hpar Hns Hpc Hc). now rewrite Hg.
  Qed.
End ReschedInd.

Lemma resched_scalars f m p c w m' :
  parent (m c) = Some p -> (forall x, parent (m x) <> Some x) ->
  resched f m p c w = Some m' -> same_scalars m m'.
Proof.
  revert f m p c w m'. apply resched_ind.
  - intros. apply same_scalars_refl.
  - intros m p c w Hpar Hns Hpc _ _ m2. pose proof (same_scalars_unlink m p c w Hpc) as Hu. fold m2 in Hu.
    destruct w; try exact Hu; (eapply same_scalars_trans; [exact Hu|]); [apply same_scalars_set_ls|apply same_scalars_set_lu].
  - intros m p c m3 Hpar Hns Hpc _ m2 H3. pose proof (same_scalars_unlink m p c LRecalc Hpc) as Hu. fold m2 in Hu.
    eapply same_scalars_trans; [|apply same_scalars_set_lr].
    destruct (parent (m p)); [eapply same_scalars_trans; [exact Hu|apply H3]|now subst].
Qed.

Lemma resched_cur f m p c w m' :
  parent (m c) = Some p -> (forall x, parent (m x) <> Some x) ->
  resched f m p c w = Some m' ->
  cur (m' c) = w /\
  forall y, y <> c -> cur (m' y) = cur (m y) \/ (w = LRecalc /\ cur (m' y) = LRecalc).
Proof.
  revert f m p c w m'. apply resched_ind.
  - auto.
  - intros m p c w Hpar Hns Hpc _ _ m2.
    assert (H2 : cur (m2 c) = w /\ forall y, y <> c -> cur (m2 y) = cur (m y))
      by (split; [now apply unlink_cur_c|intros; now apply unlink_cur_o]).
    assert (Hl : forall n y, cur n = cur (m2 p) -> cur (upd m2 p n y) = cur (m2 y)).
    { intros n y Hn. destruct (upd_cases m2 p n y) as [[-> ->]|[_ ->]]; auto. }
    destruct H2 as [Hc Ho]. destruct w; try (split; [exact Hc|intros; left; now apply Ho]);
      (split; [|intros y Hy; left]; rewrite Hl by reflexivity; auto).
  - intros m p c m3 Hpar Hns Hpc _ m2 H3.
    assert (Hl : forall y, cur (upd m3 p (set_lr (m3 p) (c :: lr (m3 p))) y) = cur (m3 y)).
    { intro y. now apply upd_proj. }
    assert (H3' : cur (m3 c) = LRecalc /\ forall y, y <> c -> cur (m3 y) = cur (m2 y) \/ cur (m3 y) = LRecalc).
    { destruct (parent (m p)) as [g|].
      - destruct H3 as [_ [Hp Ho]]. split.
        + destruct (Ho c (not_eq_sym Hpc)) as [E|[_ E]]; [rewrite E; now apply unlink_cur_c|assumption].
        + intros y Hy. destruct (Nat.eq_dec y p) as [->|Hyp]; [now right|]. destruct (Ho y Hyp) as [E|[_ E]]; auto.
      - subst m3. split; [now apply unlink_cur_c|auto]. }
    destruct H3' as [Hc Ho]. split; [now rewrite Hl|]. intros y Hy. rewrite Hl.
    destruct (Ho y Hy) as [E|E]; [left; rewrite E; now apply unlink_cur_o|now right].
Qed.

(* well-formed except that c, a child of some p with _curList already set, is on no list yet *)
Record WFh (E : nat -> Prop) (c : nat) (m : nmap) : Prop := {
  h_in : forall p x l, In x (get_list (m p) l) -> x <> c /\ parent (m x) = Some p /\ cur (m x) = l;
  h_par : forall x p, ~ E x -> x <> c -> parent (m x) = Some p -> cur (m x) <> LNone ->
                      In x (get_list (m p) (cur (m x)));
  h_root : forall x, parent (m x) = None -> cur (m x) = LNone;
  h_nodup : forall p l, NoDup (get_list (m p) l);
  h_noself : forall x, parent (m x) <> Some x;
  h_exc : forall e, E e -> cur (m e) = LRecalc /\ forall q l, ~ In e (get_list (m q) l)
}.

Lemma WFh_transit (E : nat -> Prop) c m : WFx (fun y => E y \/ y = c) m -> WFh E c m.
Proof.
  intro Hwf. constructor; try apply Hwf.
  - intros p x l Hin. split; [|now apply (wf_in _ _ Hwf)].
    intros ->. now apply (proj2 (wf_exc _ _ Hwf c (or_intror eq_refl)) p l).
  - intros x p HEx Hxc. apply (wf_par _ _ Hwf). tauto.
  - intros e He. apply (wf_exc _ _ Hwf). now left.
Qed.

(* linking c on list w of its parent p (w a real list) fills the hole *)
Lemma link_WFh (E : nat -> Prop) c m2 p w L :
  WFh E c m2 -> ~ E c -> parent (m2 c) = Some p -> cur (m2 c) = w -> w <> LNone ->
  (forall x, In x L <-> x = c \/ In x (get_list (m2 p) w)) -> NoDup L ->
  WFx E (upd m2 p (set_list (m2 p) w L)).
Proof.
  intros Hh HnE Hpc Hcc Hw HL HLnd. set (m' := upd m2 p (set_list (m2 p) w L)).
  assert (Hpar' : forall y, parent (m' y) = parent (m2 y)) by (intro y; apply upd_proj, set_list_parent).
  assert (Hcur' : forall y, cur (m' y) = cur (m2 y)) by (intro y; apply upd_proj, set_list_cur).
  assert (Hin' : forall q l x, In x (get_list (m' q) l) <-> (q = p /\ l = w /\ x = c) \/ In x (get_list (m2 q) l)).
  { intros q l x. unfold m'. destruct (upd_cases m2 p (set_list (m2 p) w L) q) as [[-> ->]|[Hq ->]]; [|intuition].
    destruct (lst_eq_dec l w) as [->|Hl].
    - rewrite get_set_list_same by assumption. rewrite HL. intuition.
    - rewrite get_set_list_other by congruence. intuition. }
  constructor.
  - intros q x l Hin. apply Hin' in Hin. rewrite Hpar', Hcur'.
    destruct Hin as [(->&->&->)|Hin]; [auto|]. now destruct (h_in _ _ _ Hh _ _ _ Hin) as (_ & ? & ?).
  - intros x q HEx Hp Hc. rewrite Hpar' in Hp. rewrite Hcur' in *. apply Hin'.
    destruct (Nat.eq_dec x c) as [->|Hxc]; [left; rewrite Hcc; split; [congruence|auto]|right; now apply (h_par _ _ _ Hh)].
  - intros x. rewrite Hpar', Hcur'. apply (h_root _ _ _ Hh).
  - intros q l. unfold m'. destruct (upd_cases m2 p (set_list (m2 p) w L) q) as [[-> ->]|[Hq ->]]; [|apply (h_nodup _ _ _ Hh)].
    destruct (lst_eq_dec l w) as [->|Hl]; [now rewrite get_set_list_same|].
    rewrite get_set_list_other by congruence. apply (h_nodup _ _ _ Hh).
  - intros x. rewrite Hpar'. apply (h_noself _ _ _ Hh).
  - intros e He. destruct (h_exc _ _ _ Hh e He) as [H1 H2]. split; [now rewrite Hcur'|].
    intros q l Hin. apply Hin' in Hin. destruct Hin as [(_&_&->)|Hin]; [contradiction|]. now apply (H2 q l).
Qed.

Section UnlinkWF.
  Variables (E : nat -> Prop) (m : nmap) (p c : nat) (w : lst).
  Hypothesis Hwf : WFx E m.
  Hypothesis HEc : ~ E c.
  Hypothesis Hpar : parent (m c) = Some p.

  Let Hpc : p <> c.
  Proof. intro; subst. now apply (wf_noself _ _ Hwf c). Qed.

  Lemma unlink_in_wf q l x :
    In x (get_list (unlink m p c w q) l) <-> In x (get_list (m q) l) /\ x <> c.
  Proof.
    rewrite unlink_in by exact Hpc. split.
    - intros [Hin Hn]. split; [assumption|]. intro; subst x.
      destruct (wf_in _ _ Hwf _ _ _ Hin) as [Hp Hc]. apply Hn. rewrite Hpar in Hp. split; [congruence|auto].
    - intros [Hin Hn]. split; [assumption|]. intros (_&_&?). contradiction.
  Qed.

  Lemma unlink_nodup q l : NoDup (get_list (unlink m p c w q) l).
  Proof.
    destruct (Nat.eq_dec q p) as [->|Hq].
    - destruct (lst_eq_dec l (cur (m c))) as [->|Hl].
      + destruct (lst_eq_dec (cur (m c)) LNone) as [Hn|Hn].
        * rewrite Hn. simpl. constructor.
        * rewrite unlink_list_p_same by (exact Hpc || assumption). apply remove_id_nodup. apply (wf_nodup _ _ Hwf).
      + rewrite unlink_list_p_other by (exact Hpc || assumption). apply (wf_nodup _ _ Hwf).
    - rewrite unlink_list_o by (exact Hpc || assumption). apply (wf_nodup _ _ Hwf).
  Qed.

  (* after unlinking towards the needs-recalc list c is in transit; towards no list it is just off *)
  Lemma unlink_WFx (E' : nat -> Prop) :
    rn w -> (forall y, E' y <-> E y \/ (w = LRecalc /\ y = c)) -> WFx E' (unlink m p c w).
  Proof.
    intros Hw HE'. constructor.
    - intros q x l Hin. apply unlink_in_wf in Hin. destruct Hin as [Hin Hx].
      destruct (wf_in _ _ Hwf _ _ _ Hin) as [H1 H2].
      rewrite unlink_parent by exact Hpc. rewrite unlink_cur_o by (exact Hpc || assumption). auto.
    - intros x q Hx Hp Hc. rewrite unlink_parent in Hp by exact Hpc. destruct (Nat.eq_dec x c) as [->|Hxc].
      + rewrite unlink_cur_c in Hc by exact Hpc. destruct Hw as [Hw|Hw]; [|congruence]. exfalso. apply Hx, HE'. auto.
      + rewrite unlink_cur_o in * by (exact Hpc || assumption).
        apply unlink_in_wf. split; [|assumption]. apply (wf_par _ _ Hwf); auto. intro He. apply Hx, HE'. now left.
    - intros x Hp. rewrite unlink_parent in Hp by exact Hpc.
      destruct (Nat.eq_dec x c) as [->|Hxc]; [congruence|].
      rewrite unlink_cur_o by (exact Hpc || assumption). now apply (wf_root _ _ Hwf).
    - apply unlink_nodup.
    - intros x. rewrite unlink_parent by exact Hpc. apply (wf_noself _ _ Hwf).
    - intros e He. apply HE' in He. destruct He as [He|[Hw' ->]].
      + assert (Hec : e <> c) by congruence. destruct (wf_exc _ _ Hwf e He) as [H1 H2]. split.
        * now rewrite unlink_cur_o by (exact Hpc || assumption).
        * intros q l Hin. apply unlink_in_wf in Hin. now apply (H2 q l).
      + split; [now rewrite unlink_cur_c by exact Hpc|].
        intros q l Hin. apply unlink_in_wf in Hin. tauto.
  Qed.

  Lemma unlink_WFx_recalc : w = LRecalc -> WFx (fun y => E y \/ y = c) (unlink m p c w).
  Proof. intro Hw. apply unlink_WFx; [now left|]. intro y. tauto. Qed.

  Lemma unlink_WFh : WFh E c (unlink m p c w).
  Proof.
    constructor.
    - intros q x l Hin. apply unlink_in_wf in Hin. destruct Hin as [Hin Hx]. split; [assumption|].
      rewrite unlink_parent by exact Hpc. rewrite unlink_cur_o by (exact Hpc || assumption). now apply (wf_in _ _ Hwf).
    - intros x q HEx Hxc Hp Hc. rewrite unlink_parent in Hp by exact Hpc.
      rewrite unlink_cur_o in * by (exact Hpc || assumption). apply unlink_in_wf. split; [|assumption]. now apply (wf_par _ _ Hwf).
    - intros x Hp. rewrite unlink_parent in Hp by exact Hpc.
      destruct (Nat.eq_dec x c) as [->|Hxc]; [congruence|].
      rewrite unlink_cur_o by (exact Hpc || assumption). now apply (wf_root _ _ Hwf).
    - apply unlink_nodup.
    - intros x. rewrite unlink_parent by exact Hpc. apply (wf_noself _ _ Hwf).
    - intros e He. assert (Hec : e <> c) by congruence. destruct (wf_exc _ _ Hwf e He) as [H1 H2]. split.
      + now rewrite unlink_cur_o by (exact Hpc || assumption).
      + intros q l Hin. apply unlink_in_wf in Hin. now apply (H2 q l).
  Qed.

  Lemma unlink_WFx_none : w = LNone -> WFx E (unlink m p c w).
  Proof. intro Hw. apply unlink_WFx; [now right|]. intro y. rewrite Hw. intuition discriminate. Qed.
End UnlinkWF.

Lemma resched_WFx f E m p c w m' :
  WFx E m -> parent (m c) = Some p -> (E c -> w = LRecalc) ->
  resched f m p c w = Some m' -> WFx E m'.
Proof.
  intros Hwf Hpar HEc H. pose proof (wf_noself _ _ Hwf) as Hns. revert E Hwf HEc. revert f m p c w m' Hpar Hns H.
  apply (resched_ind (fun m p c w m' => forall E, WFx E m -> (E c -> w = LRecalc) -> WFx E m')).
  - auto.
  - intros m p c w Hpar Hns Hpc _ Hw m2 E Hwf HEc. assert (HnE : ~ E c) by auto.
    pose proof (unlink_WFh E m p c w Hwf HnE Hpar) as Hh. fold m2 in Hh.
    assert (Hp2 : parent (m2 c) = Some p) by (unfold m2; now rewrite unlink_parent).
    assert (Hc2 : cur (m2 c) = w) by (unfold m2; now apply unlink_cur_c).
    assert (Hnin : ~ In c (get_list (m2 p) w)) by (intro Hin; now destruct (h_in _ _ _ Hh _ _ _ Hin)).
    destruct w; [now apply unlink_WFx_none| | |congruence].
    + apply (link_WFh E c m2 p LSched _ Hh HnE Hp2 Hc2); [discriminate|intro x; apply ins_sched_in|].
      apply ins_sched_nodup; [assumption|apply (h_nodup _ _ _ Hh p LSched)].
    + apply (link_WFh E c m2 p LUnsched _ Hh HnE Hp2 Hc2); [discriminate|intro x; simpl; intuition|].
      constructor; [assumption|apply (h_nodup _ _ _ Hh p LUnsched)].
  - intros m p c m3 Hpar Hns Hpc Hc m2 H3 E Hwf _.
    assert (HnE : ~ E c) by (intro He; destruct (wf_exc _ _ Hwf c He); congruence).
    pose proof (unlink_WFx_recalc E m p c LRecalc Hwf HnE Hpar eq_refl) as Hwf2. fold m2 in Hwf2.
    pose proof (same_scalars_unlink m p c LRecalc Hpc) as Hsc2. fold m2 in Hsc2.
    assert (Hm3 : WFx (fun y => E y \/ y = c) m3 /\ same_scalars m m3).
    { destruct (parent (m p)) as [g|] eqn:Hg; [|subst m3; auto].
      destruct H3 as [[f' Hr] HP]. assert (Hg2 : parent (m2 p) = Some g) by (unfold m2; now rewrite unlink_parent).
      split; [apply HP; auto|]. eapply same_scalars_trans; [exact Hsc2|].
      apply (resched_scalars f' m2 g p LRecalc m3 Hg2 (wf_noself _ _ Hwf2) Hr). }
    destruct Hm3 as [Hwf3 Hsc].
    apply (link_WFh E c m3 p LRecalc (c :: lr (m3 p)) (WFh_transit E c m3 Hwf3) HnE);
      [destruct (Hsc c) as [-> _]; assumption|apply (wf_exc _ _ Hwf3 c); now right|discriminate|intro x; simpl; intuition|].
    constructor; [apply (proj2 (wf_exc _ _ Hwf3 c (or_intror eq_refl)) p LRecalc)|apply (wf_nodup _ _ Hwf3 p LRecalc)].
Qed.

Lemma K5_same_agg_ls m m' :
  (forall y, agg (m' y) = agg (m y)) -> (forall q, ls (m' q) = ls (m q)) -> K5 m -> K5 m'.
Proof.
  intros Ha Hl Hk q. rewrite Hl. apply sorted_ext with (m := m); auto.
Qed.

Lemma K5_unlink m p c w : p <> c -> K5 m -> K5 (unlink m p c w).
Proof.
  intros Hpc Hk q.
  apply sorted_ext with (m := m); [intros; now apply unlink_agg|].
  change (sorted m (get_list (unlink m p c w q) LSched)).
  destruct (Nat.eq_dec q p) as [->|Hq].
  - destruct (lst_eq_dec LSched (cur (m c))) as [He|He].
    + rewrite He at 1. rewrite unlink_list_p_same by (assumption || congruence).
      rewrite <- He. apply sorted_remove. apply Hk.
    + rewrite unlink_list_p_other by assumption. apply Hk.
  - rewrite unlink_list_o by assumption. apply Hk.
Qed.

Lemma K5_upd_other_list m x l v : l <> LSched -> K5 m -> K5 (upd m x (set_list (m x) l v)).
Proof.
  intros Hl Hk. apply K5_same_agg_ls with (m := m); [| |assumption].
  - intro y. apply upd_proj, set_list_agg.
  - intro q. apply (upd_proj (fun n => get_list n LSched)). now apply get_set_list_other.
Qed.

Lemma resched_K5 f m p c w m' :
  parent (m c) = Some p -> (forall x, parent (m x) <> Some x) ->
  K5 m -> resched f m p c w = Some m' -> K5 m'.
Proof.
  intros Hpar Hns Hk H. revert Hk. revert f m p c w m' Hpar Hns H.
  apply (resched_ind (fun m p c w m' => K5 m -> K5 m')).
  - auto.
  - intros m p c w Hpar Hns Hpc _ _ m2 Hk.
    pose proof (K5_unlink m p c w Hpc Hk) as Hk2. fold m2 in Hk2. destruct w; try exact Hk2.
    + assert (Ha : forall x, agg (upd m2 p (set_ls (m2 p) (ins_sched m2 c (ls (m2 p)))) x) = agg (m2 x)).
      { intro x. now apply upd_proj. }
      intro q. apply sorted_ext with (m := m2); [intros; apply Ha|].
      destruct (upd_cases m2 p (set_ls (m2 p) (ins_sched m2 c (ls (m2 p)))) q) as [[-> ->]|[Hq ->]]; [|apply Hk2].
      apply ins_sched_sorted, Hk2.
    + apply (K5_upd_other_list _ p LUnsched); [discriminate|assumption].
  - intros m p c m3 Hpar Hns Hpc _ m2 H3 Hk.
    pose proof (K5_unlink m p c LRecalc Hpc Hk) as Hk2. fold m2 in Hk2.
    apply (K5_upd_other_list _ p LRecalc); [discriminate|]. destruct (parent (m p)); [now apply H3|now subst].
Qed.

Lemma K1_unlink m p c w : p <> c -> rn w -> K1 m -> K1 (unlink m p c w).
Proof.
  intros Hpc Hw Hk x Hx. destruct (Nat.eq_dec x c) as [->|Hxc].
  - now rewrite unlink_cur_c.
  - rewrite unlink_cur_o by assumption. apply Hk.
    intro Hl. apply Hx. change (get_list (unlink m p c w x) LRecalc = []).
    destruct (get_list (unlink m p c w x) LRecalc) as [|a t] eqn:Hg; [reflexivity|].
    assert (Hin : In a (get_list (unlink m p c w x) LRecalc)) by (rewrite Hg; left; reflexivity).
    apply unlink_in in Hin; [|assumption]. destruct Hin as [Hin _].
    change (In a (lr (m x))) in Hin. rewrite Hl in Hin. destruct Hin.
Qed.

Lemma resched_R_K1 f E m p c m' :
  WFx E m -> parent (m c) = Some p -> K1 m ->
  resched f m p c LRecalc = Some m' -> K1 m'.
Proof.
  intros Hwf Hpar Hk H.
  refine (resched_ind (fun m p c w m' => w = LRecalc -> forall E, WFx E m -> K1 m -> K1 m') _ _ _
            f m p c LRecalc m' Hpar (wf_noself _ _ Hwf) H eq_refl E Hwf Hk); clear.
  - auto.
  - intros; congruence.
  - intros m p c m3 Hpar Hns Hpc Hc m2 H3 _ E Hwf Hk.
    assert (HnE : ~ E c) by (intro He; destruct (wf_exc _ _ Hwf c He); congruence).
    pose proof (K1_unlink m p c LRecalc Hpc (or_introl eq_refl) Hk) as Hk2. fold m2 in Hk2.
    pose proof (unlink_WFx_recalc E m p c LRecalc Hwf HnE Hpar eq_refl) as Hwf2. fold m2 in Hwf2.
    assert (Hm3 : K1 m3 /\ rn (cur (m3 p))).
    { destruct (parent (m p)) as [g|] eqn:Hg.
      - destruct H3 as [[f' Hr] HP]. assert (Hg2 : parent (m2 p) = Some g) by (unfold m2; now rewrite unlink_parent).
        split; [eapply HP; eauto|]. left. apply (resched_cur f' m2 g p LRecalc m3 Hg2 (wf_noself _ _ Hwf2) Hr).
      - subst m3. split; [assumption|]. right. apply (wf_root _ _ Hwf2). unfold m2. now rewrite unlink_parent. }
    destruct Hm3 as [Hk3 Hrn].
    intros x Hx. destruct (upd_cases m3 p (set_lr (m3 p) (c :: lr (m3 p))) x) as [[-> Hu]|[Hne Hu]]; rewrite Hu in *;
      [exact Hrn|now apply Hk3].
Qed.

Lemma K3at_upd_other_list m x l v y :
  l <> LSched -> K3at m y -> K3at (upd m x (set_list (m x) l v)) y.
Proof.
  intros Hl Hk. set (m' := upd m x (set_list (m x) l v)).
  assert (Hsc : same_scalars m m') by apply same_scalars_upd_list.
  assert (Hls : forall q, ls (m' q) = ls (m q)).
  { intro q. apply (upd_proj (fun n => get_list n LSched)). now apply get_set_list_other. }
  assert (Hcur : forall q, cur (m' q) = cur (m q)).
  { intro q. apply upd_proj, set_list_cur. }
  destruct (Hsc y) as (_&Ha&Hs&Hv&_).
  apply K3at_ext with (m := m); auto.
  apply fsa_ext; [apply Hls|]. intro z. now destruct (Hsc z) as (_&?&_).
Qed.

(* unlinking c from p leaves K3 intact everywhere except possibly at p (when c headed p's
   scheduled list) and at c (whose _curList changes) *)
Lemma K3at_unlink m p c w y :
  p <> c -> y <> c -> (y <> p \/ hd_error (ls (m p)) <> Some c) ->
  K3at m y -> K3at (unlink m p c w) y.
Proof.
  intros Hpc Hyc Hyp Hk.
  apply K3at_ext with (m := m); auto using unlink_valid, unlink_cur_o, unlink_agg, unlink_sched.
  apply fsa_hd; [|intro z; now apply unlink_agg].
  change (hd_error (get_list (unlink m p c w y) LSched) = hd_error (get_list (m y) LSched)).
  destruct (Nat.eq_dec y p) as [->|Hne].
  - destruct Hyp as [?|Hhd]; [congruence|].
    destruct (lst_eq_dec LSched (cur (m c))) as [He|He].
    + rewrite He at 1. rewrite unlink_list_p_same by (assumption || congruence). rewrite <- He.
      change (get_list (m p) LSched) with (ls (m p)) in *.
      destruct (ls (m p)) as [|h t]; [reflexivity|].
      simpl in Hhd. assert (h <> c) by congruence. now rewrite remove_id_keeps_head.
    + now rewrite unlink_list_p_other.
  - now rewrite unlink_list_o.
Qed.

Lemma resched_R_K3 f E m p c m' :
  WFx E m -> parent (m c) = Some p -> (forall y, y <> c -> K3at m y) ->
  resched f m p c LRecalc = Some m' -> K3 m'.
Proof.
  intros Hwf Hpar Hk H.
  refine (resched_ind (fun m p c w m' => w = LRecalc -> forall E, WFx E m -> (forall y, y <> c -> K3at m y) -> K3 m') _ _ _
            f m p c LRecalc m' Hpar (wf_noself _ _ Hwf) H eq_refl E Hwf Hk); clear.
  - intros m p c _ Hc E _ Hk. apply K3_all. intro y. destruct (Nat.eq_dec y c) as [->|Hy]; [|auto].
    intros _ Hsu. rewrite Hc in Hsu. destruct Hsu; discriminate.
  - intros; congruence.
  - intros m p c m3 Hpar Hns Hpc Hc m2 H3 _ E Hwf Hk.
    assert (HnE : ~ E c) by (intro He; destruct (wf_exc _ _ Hwf c He); congruence).
    assert (Hk2 : forall y, y <> p -> K3at m2 y).
    { intros y Hy. destruct (Nat.eq_dec y c) as [->|Hyc].
      - intros _ Hsu. unfold m2 in Hsu. rewrite unlink_cur_c in Hsu by assumption. destruct Hsu; discriminate.
      - unfold m2. apply K3at_unlink; auto. }
    pose proof (unlink_WFx_recalc E m p c LRecalc Hwf HnE Hpar eq_refl) as Hwf2. fold m2 in Hwf2.
    assert (Hk3 : K3 m3).
    { destruct (parent (m p)) as [g|] eqn:Hg; [destruct H3 as [_ HP]; eapply HP; eauto|subst m3].
      apply K3_all. intro y. destruct (Nat.eq_dec y p) as [->|Hy]; [|auto].
      intros _ Hsu. rewrite (wf_root _ _ Hwf2 p) in Hsu; [destruct Hsu; discriminate|]. unfold m2. now rewrite unlink_parent. }
    apply K3_all. intro y. apply (K3at_upd_other_list m3 p LRecalc); [discriminate|]. now apply K3_all.
Qed.

Definition cur_rel (m m' : nmap) : Prop := forall y, cur (m' y) = cur (m y) \/ rn (cur (m' y)).

Lemma K4_mono m m' : same_scalars m m' -> cur_rel m m' -> K4 m -> K4 m'.
Proof.
  intros Hsc Hc Hk x. destruct (Hsc x) as (_&Ha&_). rewrite Ha.
  destruct (Hc x) as [He|[He|He]]; rewrite He; [apply Hk| |]; split; discriminate.
Qed.

Lemma K6_mono m m' : same_scalars m m' -> K6 m -> K6 m'.
Proof. intros Hsc Hk x. destruct (Hsc x) as (_&Ha&Hs&_). rewrite Ha, Hs. apply Hk. Qed.

Definition K2at (G : nat -> Prop) (m : nmap) (x : nat) : Prop := ~ G x -> valid (m x) = false -> rn (cur (m x)).

Lemma K2_mono G m m' c :
  same_scalars m m' -> cur_rel m m' -> rn (cur (m' c)) -> (forall y, y <> c -> K2at G m y) -> K2 G m'.
Proof.
  intros Hsc Hc Hcc Hk x HG Hv. destruct (Nat.eq_dec x c) as [->|Hx]; [assumption|].
  destruct (Hsc x) as (_&_&_&Hvx&_). rewrite Hvx in Hv.
  destruct (Hc x) as [He|He]; [rewrite He; now apply Hk|assumption].
Qed.

Lemma acyc_mono m m' : same_scalars m m' -> acyc m -> acyc m'.
Proof. intros Hsc. apply acyc_ext. intro y. now destruct (Hsc y) as (?&_). Qed.

Lemma dead_inert_mono m m' : same_scalars m m' -> dead_inert m -> dead_inert m'.
Proof.
  intros Hsc Hd x Hx. destruct (Hsc x) as (Hp&_&_&_&Ha&_). rewrite Ha in Hx. destruct (Hd x Hx) as [H1 H2].
  split; [congruence|]. intros y. destruct (Hsc y) as (Hpy&_). rewrite Hpy. apply H2.
Qed.

Definition listed_except (c : nat) (m : nmap) : Prop :=
  forall y q, y <> c -> parent (m y) = Some q -> cur (m y) <> LNone.

Lemma listed_is_except m c : listed m -> listed_except c m.
Proof. intros H y q _. apply H. Qed.

Lemma cur_rel_unlink m p c w : p <> c -> rn w -> cur_rel m (unlink m p c w).
Proof.
  intros Hpc Hw y. destruct (Nat.eq_dec y c) as [->|Hy].
  - right. now rewrite unlink_cur_c.
  - left. now apply unlink_cur_o.
Qed.

Lemma resched_cur_rel f m p c w m' :
  parent (m c) = Some p -> (forall x, parent (m x) <> Some x) -> rn w ->
  resched f m p c w = Some m' -> cur_rel m m'.
Proof.
  intros Hpar Hns Hw H y. destruct (resched_cur f m p c w m' Hpar Hns H) as [Hc Ho].
  destruct (Nat.eq_dec y c) as [->|Hy]; [right; now rewrite Hc|].
  destruct (Ho y Hy) as [He|[_ He]]; [left; assumption|right; left; assumption].
Qed.

Lemma resched_R_Core f m p c m' :
  Core m -> parent (m c) = Some p -> resched f m p c LRecalc = Some m' -> Core m'.
Proof.
  intros Hc Hpar H. destruct Hc as [Hwf Hk1 Hk4 Hk5 Hk6 Hac Hd].
  assert (Hns : forall x, parent (m x) <> Some x) by apply (wf_noself _ _ Hwf).
  pose proof (resched_scalars f m p c LRecalc m' Hpar Hns H) as Hsc.
  assert (Hcr : cur_rel m m') by (eapply resched_cur_rel; eauto; left; reflexivity).
  constructor.
  - eapply resched_WFx; eauto; intros [].
  - eapply resched_R_K1; eauto.
  - eapply K4_mono; eauto.
  - eapply resched_K5; eauto.
  - eapply K6_mono; eauto.
  - eapply acyc_mono; eauto.
  - eapply dead_inert_mono; eauto.
Qed.

Lemma resched_R_K2 f G m p c m' :
  WF m -> parent (m c) = Some p -> (forall y, y <> c -> K2at G m y) ->
  resched f m p c LRecalc = Some m' -> K2 G m'.
Proof.
  intros Hwf Hpar Hk H.
  assert (Hns : forall x, parent (m x) <> Some x) by apply (wf_noself _ _ Hwf).
  pose proof (resched_scalars f m p c LRecalc m' Hpar Hns H) as Hsc.
  assert (Hcr : cur_rel m m') by (eapply resched_cur_rel; eauto; left; reflexivity).
  apply (K2_mono G m m' c); auto.
  left. apply (resched_cur f m p c LRecalc m' Hpar Hns H).
Qed.

Lemma resched_R_listed f m p c m' :
  WF m -> parent (m c) = Some p -> listed_except c m ->
  resched f m p c LRecalc = Some m' -> listed m'.
Proof.
  intros Hwf Hpar Hl H.
  assert (Hns : forall x, parent (m x) <> Some x) by apply (wf_noself _ _ Hwf).
  pose proof (resched_scalars f m p c LRecalc m' Hpar Hns H) as Hsc.
  destruct (resched_cur f m p c LRecalc m' Hpar Hns H) as [Hc Ho].
  intros y q Hq. destruct (Hsc y) as (Hpy&_). rewrite Hpy in Hq.
  destruct (Nat.eq_dec y c) as [->|Hy]; [rewrite Hc; discriminate|].
  destruct (Ho y Hy) as [He|[_ He]]; rewrite He; [eapply Hl; eauto|discriminate].
Qed.

Lemma resched_R_cur_frame f m p c m' :
  parent (m c) = Some p -> (forall x, parent (m x) <> Some x) ->
  resched f m p c LRecalc = Some m' ->
  forall z, z <> c -> ~ desc m z p -> cur (m' z) = cur (m z).
Proof.
  intros Hpar Hns H.
  refine (resched_ind (fun m p c w m' => w = LRecalc -> forall z, z <> c -> ~ desc m z p -> cur (m' z) = cur (m z)) _ _ _
            f m p c LRecalc m' Hpar Hns H eq_refl); clear.
  - auto.
  - intros; congruence.
  - intros m p c m3 Hpar Hns Hpc _ m2 H3 _ z Hzc Hzp.
    assert (Hzp' : z <> p) by (intro; subst; apply Hzp; constructor).
    rewrite upd_other by assumption. unfold m2 in *. rewrite <- (unlink_cur_o m p c LRecalc Hpc z Hzc).
    destruct (parent (m p)) as [g|] eqn:Hg; [|now subst]. destruct H3 as [_ HP]. apply HP; auto.
    intro Hd. apply Hzp. eapply desc_child; [|exact Hg].
    apply (desc_parent_ext (unlink m p c LRecalc) m); [|assumption]. intro y. symmetry. now apply unlink_parent.
Qed.
