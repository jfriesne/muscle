(* C20 -- recalc_min: what the manager learns from the recalculation sweep. *)
From Coq Require Import List Arith NArith Bool Lia.
From Muscle Require Import Pulse.PulseModel Pulse.PulseInv Pulse.PulseForest Pulse.PulseResched Pulse.PulseOps
     Pulse.PulseSweep Pulse.PulseReach.
Import ListNotations.

(* a node is "settled" when its own time is valid and nothing below it awaits recalculation *)
Definition settled (m : nmap) (x : nat) : Prop := valid (m x) = true /\ lr (m x) = [].

Lemma settled_child m p y :
  Good nobody m -> settled m p -> parent (m y) = Some p -> settled m y /\ su (cur (m y)).
Proof.
  intros [[Hc Hl Hk3] Hk2] [Hvp Hlp] Hpy. pose proof (c_wf _ Hc) as Hwf.
  pose proof (Hl y p Hpy) as Hcn.
  pose proof (wf_par _ _ Hwf y p (fun F => F) Hpy Hcn) as Hin.
  assert (Hsu : su (cur (m y))).
  { destruct (cur (m y)) eqn:Hcy; [congruence|left; reflexivity|right; reflexivity|].
    simpl in Hin. rewrite Hlp in Hin. destruct Hin. }
  split; [|assumption]. split.
  - destruct (valid (m y)) eqn:Hv; [reflexivity|]. exfalso.
    apply (rn_not_su (cur (m y))); [|assumption]. apply Hk2; [intros []|assumption].
  - destruct (lr (m y)) as [|a t] eqn:Hlr; [reflexivity|]. exfalso.
    apply (rn_not_su (cur (m y))); [|assumption]. apply (c_k1 _ Hc). rewrite Hlr. discriminate.
Qed.

Lemma settled_desc m r :
  Good nobody m -> settled m r -> forall y, desc m r y -> settled m y /\ (y <> r -> su (cur (m y))).
Proof.
  intros Hg Hr y Hd. induction Hd as [|c p Hd IH Hp].
  - split; [assumption|]. intro F. now contradiction F.
  - destruct IH as [Hsp _]. destruct (settled_child m p c Hg Hsp Hp) as [Hs Hsu]. split; [assumption|auto].
Qed.

Lemma agg_lower_bound m r :
  Good nobody m -> settled m r ->
  agg (m r) = N.min (sched (m r)) (first_sched_agg m r) ->
  forall y, desc m r y -> (agg (m r) <= agg (m y))%N /\ (agg (m y) <= sched (m y))%N.
Proof.
  intros Hg Hr Hagg y Hd.
  pose proof (Good_core _ _ Hg) as Hc. pose proof (c_wf _ Hc) as Hwf.
  assert (Hexact : forall z, desc m r z -> agg (m z) = N.min (sched (m z)) (first_sched_agg m z)).
  { intros z Hz. destruct (Nat.eq_dec z r) as [->|Hne]; [assumption|].
    destruct (settled_desc m r Hg Hr z Hz) as [[Hv _] Hsu]. apply (i_k3 _ (g_inv _ _ Hg)); auto. }
  split; [|rewrite (Hexact y Hd); apply N.le_min_l].
  induction Hd as [|c p Hd IH Hp]; [apply N.le_refl|].
  etransitivity; [exact IH|]. rewrite (Hexact p Hd). etransitivity; [apply N.le_min_r|].
  destruct (settled_desc m r Hg Hr p Hd) as [Hsp _].
  apply fsa_le_child; [assumption..|]. now destruct (settled_child m p c Hg Hsp Hp).
Qed.

Lemma agg_attained m r :
  Good nobody m -> settled m r ->
  agg (m r) = N.min (sched (m r)) (first_sched_agg m r) ->
  exists y, desc m r y /\ sched (m y) = agg (m r).
Proof.
  intros Hg. pose proof (Good_core _ _ Hg) as Hc. pose proof (c_wf _ Hc) as Hwf.
  destruct (c_acyc _ Hc) as (rk & B & Hrk & Hb).
  remember (B - rk r) as n eqn:Hn. revert r Hn. induction n as [n IH] using lt_wf_ind. intros x Hn Hs Hagg.
  assert (Hself : (sched (m x) <= first_sched_agg m x)%N -> exists y, desc m x y /\ sched (m y) = agg (m x)).
  { intro Hle. exists x. split; [constructor|]. rewrite Hagg. symmetry. now apply N.min_l. }
  destruct (N.le_ge_cases (sched (m x)) (first_sched_agg m x)) as [Hle|Hge]; [auto|].
  unfold first_sched_agg in Hagg, Hge, Hself. destruct (ls (m x)) as [|h t] eqn:Hls; [apply Hself, (c_k6 _ Hc)|].
  destruct (wf_head _ _ x LSched h _ Hwf Hls) as [Hp Hch].
  destruct (settled_child m x h Hg Hs Hp) as [Hsh Hsu].
  destruct (IH (B - rk h)) with (r := h) as (y & Hd & Hy);
    [pose proof (Hrk _ _ Hp); pose proof (Hb h); lia|reflexivity|assumption|apply (i_k3 _ (g_inv _ _ Hg)); [apply Hsh|assumption]|].
  exists y. split.
  - apply desc_trans with (b := h); [eapply desc_child; [constructor|eassumption]|assumption].
  - rewrite Hy, Hagg. symmetry. now apply N.min_r.
Qed.

(* a freshly recalculated tree: what the recalculation sweep establishes at a root and the pulse sweep starts from *)
Definition recalculated (m : nmap) (r : nat) : Prop :=
  Good nobody m /\ is_root m r = true /\ settled m r /\ agg (m r) = N.min (sched (m r)) (first_sched_agg m r).

Lemma recalculated_min m r :
  recalculated m r ->
  (forall y, desc m r y -> settled m y /\ (agg (m r) <= sched (m y))%N) /\ (exists y, desc m r y /\ sched (m y) = agg (m r)).
Proof.
  intros (Hg & _ & Hs & Hagg). split; [|now apply agg_attained].
  intros y Hd. split; [now apply (settled_desc m r Hg Hs y Hd)|].
  destruct (agg_lower_bound m r Hg Hs Hagg y Hd). lia.
Qed.

Section RecalcMin.
  Variable gt : nmap -> nat -> nat -> N -> N -> N * list cop.
  Hypothesis gt_pure : forall m x k now prev, snd (gt m x k now prev) = [].

  Lemma top_get_spec f s r now s' :
    Good nobody (nd s) -> is_root (nd s) r = true -> top_get gt f s r now = Some s' ->
    exists s1 mn, get_aux gt f now s r NEVER = Some (s1, mn) /\ s' = mkSt (nd s1) (EMin r mn :: evs s1) /\
      recalculated (nd s1) r /\ mn = agg (nd s1 r) /\
      (forall y, parent (nd s1 y) = parent (nd s y) /\ alive (nd s1 y) = alive (nd s y)) /\
      (forall z, ~ desc (nd s) r z -> same_fields (nd s) (nd s1) z).
  Proof.
    intros Hg Hr H. destruct (top_get_inv gt f s r now s' Hr H) as (s1 & mn & Ha & ->).
    destruct (get_aux_spec gt gt_pure now f nobody s r NEVER s1 mn Hg (root_rn _ _ _ Hg Hr) Ha)
      as (Hg1 & Hpar & Hfr & Hv & Hlr & Hagg & _ & Hmn & _).
    exists s1, mn. split; [assumption|]. split; [reflexivity|].
    split; [split; [assumption|split; [|split; [split|]; assumption]]|split; [|split; assumption]].
    - destruct (is_root_facts _ _ Hr) as [Hal Hp]. unfold is_root. destruct (Hpar r) as [-> ->]. now rewrite Hal, Hp.
    - rewrite Hmn. apply N.min_r. apply (c_k6 _ (Good_core _ _ Hg1)).
  Qed.

  (* after the manager's recalculation sweep on a root r, in any reachable (Good) state:
     every node attached below r has a valid time and nothing awaits recalculation; the time mn reported to
     the manager is the minimum of the times requested by the nodes attached below r (no node requests an
     earlier time, and some node requests exactly mn); scheduled lists are sorted (part of Good) *)
  Theorem recalc_min f s r now s' :
    Good nobody (nd s) -> is_root (nd s) r = true -> top_get gt f s r now = Some s' ->
    exists mn, hd_error (evs s') = Some (EMin r mn) /\ mn = agg (nd s' r) /\
      Good nobody (nd s') /\
      (forall y, desc (nd s') r y -> settled (nd s') y /\ (mn <= sched (nd s' y))%N) /\
      (exists y, desc (nd s') r y /\ sched (nd s' y) = mn) /\
      (forall y, parent (nd s' y) = parent (nd s y)).
  Proof.
    intros Hg Hr H. destruct (top_get_spec f s r now s' Hg Hr H) as (s1 & mn & _ & -> & Hrec & -> & Hpar & _).
    destruct (recalculated_min _ _ Hrec) as [Hall Hatt].
    exists (agg (nd s1 r)). simpl. split; [reflexivity|]. split; [reflexivity|]. split; [apply Hrec|].
    split; [assumption|]. split; [assumption|]. intro y. apply Hpar.
  Qed.
End RecalcMin.

(* an invalid node cannot be forgotten: it and every ancestor that has a parent sit on needs-recalc lists, so the
   next recalculation sweep from the root descends to it *)
Lemma invalid_on_recalc_path m x :
  Good nobody m -> valid (m x) = false ->
  forall a, desc m a x -> parent (m a) <> None -> cur (m a) = LRecalc.
Proof.
  intros Hg Hv. pose proof (Good_core _ _ Hg) as Hc. pose proof (c_wf _ Hc) as Hwf.
  assert (Hrec : forall z, parent (m z) <> None -> rn (cur (m z)) -> cur (m z) = LRecalc).
  { intros z Hp [Hr|Hn]; [assumption|]. destruct (parent (m z)) as [p|] eqn:Hpz; [|congruence].
    exfalso. eapply (i_listed _ (g_inv _ _ Hg)); eauto. }
  assert (Hup : forall a z, desc m a z -> (parent (m z) <> None -> cur (m z) = LRecalc) ->
                            parent (m a) <> None -> cur (m a) = LRecalc).
  { intros a z Hd. induction Hd as [|c p Hd IH Hp]; intros Hz; [assumption|].
    apply IH. intro Hpp. apply Hrec; [assumption|]. apply (c_k1 _ Hc).
    assert (Hcc : cur (m c) = LRecalc) by (apply Hz; congruence).
    pose proof (wf_par _ _ Hwf c p (fun F => F) Hp) as Hin. rewrite Hcc in Hin. specialize (Hin ltac:(discriminate)).
    simpl in Hin. intro He. rewrite He in Hin. destruct Hin. }
  intros a Hd. apply (Hup a x Hd). intro Hp. apply Hrec; [assumption|].
  apply (g_k2 _ _ Hg); [intros []|assumption].
Qed.
