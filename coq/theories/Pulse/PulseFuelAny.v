(* C20 -- fuel adequacy of the pulse sweep for Pulse() callbacks that perform arbitrary operations: with
   fuel >= 3N+4 (N bounds the ids of the nodes in use) the sweep never runs out of fuel. *)
From Coq Require Import List Arith NArith Bool Lia.
From Muscle Require Import Pulse.PulseModel Pulse.PulseInv Pulse.PulseForest Pulse.PulseResched Pulse.PulseOps
     Pulse.PulseSweep Pulse.PulseReach Pulse.PulseFuel.
Import ListNotations.

(* F = the nodes whose PulseAux is running, innermost first: one that is still on a scheduled list has the next
   one as its parent (the outermost: none) *)
Fixpoint J (F : list nat) (m : nmap) : Prop :=
  match F with
  | [] => True
  | z :: rest => (cur (m z) = LSched -> parent (m z) = hd_error rest) /\ J rest m
  end.

Lemma J_mono F m m' : op_mono m m' -> J F m -> J F m'.
Proof.
  intros Hm. induction F as [|z rest IH]; simpl; [auto|]. intros [H1 H2]. split; [|auto].
  intro Hz. destruct (proj1 (proj2 (Hm z)) (or_introl Hz)) as [Hc Hp]. rewrite Hp. apply H1. congruence.
Qed.

Lemma J_parent_in F m c x : J F m -> In c F -> cur (m c) = LSched -> parent (m c) = Some x -> In x F.
Proof.
  induction F as [|z rest IH]; simpl; [intros _ []|]. intros [H1 H2] Hin Hc Hp.
  destruct Hin as [->|Hin]; [|right; auto].
  rewrite (H1 Hc) in Hp. destruct rest as [|q r]; [discriminate|]. inversion Hp. right. now left.
Qed.

Section AnyPulseFuel.
  Variable pl : nmap -> nat -> nat -> N -> N -> list cop.

  Lemma run_cops_fuel G N f : forall os m,
    Good G m -> (forall y, alive (m y) = true -> y < N) -> 2 * N + 2 <= f -> exists m', run_cops f m os = Some m'.
  Proof.
    induction os as [|o t IH]; intros m Hg Ha Hf; simpl; [eauto|].
    destruct (small_rank m N (c_acyc _ (Good_core _ _ Hg)) (kids_lt_of_alive G N m Hg Ha)) as (rk & He & Hb).
    destruct (apply_cop_fuel G rk N N f m o Hg He Hb Ha) as (m1 & H1); [lia|]. rewrite H1.
    apply IH; [eapply apply_cop_good; eauto| |assumption].
    destruct (apply_cop_frame G f m o m1 Hg H1) as [Hm _]. intros y Hy. apply Ha. now apply (Hm y).
  Qed.

  (* 3N+3: a frame needs fuel > 2N+2 for its callback's operations (run_cops_fuel) and > N for its loop (cnt <= N)
     and for the final resched_up (rank <= N, small_rank); the stack x :: F of distinct ids below N is at most N
     deep and each level has one unit less *)
  Lemma pulse_aux_fuel_any now N : forall f F G s x,
    Good G (nd s) -> (forall y, alive (nd s y) = true -> y < N) ->
    NoDup (x :: F) -> (forall z, In z (x :: F) -> z < N) -> J (x :: F) (nd s) ->
    3 * N + 3 <= f + length F -> exists s', pulse_aux pl f now s x = Some s'.
  Proof.
    induction f as [|f IH]; intros F G s x Hg Ha Hnd Hlt HJ Hf;
      pose proof (ids_len N (x :: F) Hnd Hlt) as HlenF; simpl in HlenF; [lia|]. simpl.
    assert (Hself : exists s1, pulse_self pl f s x now = Some s1).
    { unfold pulse_self. destruct (valid (nd s x) && N.leb (sched (nd s x)) now); [|eauto].
      set (m1 := upd (nd s) x (set_npl (nd s x) (S (npl (nd s x))))).
      destruct (run_cops_fuel G N f (pl m1 x (npl (nd s x)) now (sched (nd s x))) m1 (Good_count_pulse G (nd s) x Hg))
        as (m2 & ->); [|lia|eauto].
      intros y Hy. apply Ha. unfold m1 in Hy.
      destruct (upd_cases (nd s) x (set_npl (nd s x) (S (npl (nd s x)))) y) as [[-> Hu]|[_ Hu]]; rewrite Hu in Hy; exact Hy. }
    destruct Hself as (s1 & Hs). rewrite Hs.
    pose proof (pulse_self_good pl G f s x now s1 Hg Hs) as Hg1.
    pose proof (pulse_self_mono pl G f s x now s1 Hg Hs) as Hm1.
    set (G' := fun y => G y \/ y = x) in *.
    set (I := fun si : state => Good G' (nd si) /\ (forall y, alive (nd si y) = true -> y < N) /\ J (x :: F) (nd si)).
    assert (HI1 : I s1).
    { split; [assumption|]. split; [intros y Hy; apply Ha; now apply (Hm1 y)|]. eapply J_mono; eauto. }
    assert (Hstep : forall si c t, I si -> ls (nd si x) = c :: t -> (agg (nd si c) <= now)%N ->
              exists si1, pulse_aux pl f now si c = Some si1 /\ I si1 /\ cnt N (nd si1) < cnt N (nd si)).
    { intros si c t (Hgi & Hai & HJi) Hl _.
      pose proof (kids_lt_of_alive G' N (nd si) Hgi Hai) as Hki.
      destruct (wf_head _ _ x LSched c _ (Good_wf _ _ Hgi) Hl) as [Hpc Hcc].
      (* a scheduled child of x that were on the stack would have x above it in the stack a second time *)
      assert (HcF : ~ In c (x :: F)).
      { inversion Hnd; subst. intros [Heq|Hin].
        - subst c. now apply (wf_noself _ _ (Good_wf _ _ Hgi) x).
        - apply H1. apply (J_parent_in F (nd si) c x (proj2 HJi) Hin Hcc Hpc). }
      destruct (IH (x :: F) G' si c Hgi Hai) as (si1 & Hcall).
      - constructor; assumption.
      - intros z [<-|Hz]; [eapply Hki; eauto|now apply Hlt].
      - simpl. split; [intros _; assumption|exact HJi].
      - simpl. lia.
      - exists si1. split; [assumption|]. pose proof (pulse_aux_mono pl now f G' si c si1 Hgi Hcall) as Hmono.
        split; [|eapply pulse_child_counts; eauto].
        split; [eapply pulse_aux_good; eauto|split; [intros y Hy; apply Hai; now apply (Hmono y)|eapply J_mono; eauto]]. }
    destruct (loop_sched_total I (fun si => cnt N (nd si)) (pulse_aux pl f now) x now Hstep f s1 HI1) as (s2 & Hl2).
    { pose proof (cnt_le N (nd s1)). lia. }
    rewrite Hl2.
    assert (HI2 : I s2).
    { apply (loop_sched_ind2 I (pulse_aux pl f now) x now) with (k := f) (s := s1); [|exact HI1|exact Hl2].
      intros si c t si1 HIi Hls Hle Hcall. destruct (Hstep si c t HIi Hls Hle) as (si1' & Hc' & HI' & _). congruence. }
    destruct HI2 as (Hg2 & Ha2 & _).
    destruct (small_rank (nd s2) N (c_acyc _ (Good_core _ _ Hg2)) (kids_lt_of_alive G' N (nd s2) Hg2 Ha2)) as (rk & He & Hb).
    destruct (resched_up_fuel rk f (nd s2) x He) as (m3 & ->); [intro y; specialize (Hb y); lia|]. eauto.
  Qed.
End AnyPulseFuel.

Section StepFuelAny.
  Variable gt : nmap -> nat -> nat -> N -> N -> N * list cop.
  Variable pl : nmap -> nat -> nat -> N -> N -> list cop.
  Hypothesis gt_pure : forall m x k now prev, snd (gt m x k now prev) = [].

  Lemma top_pulse_total_any f s r now N :
    Good nobody (nd s) -> (forall y, alive (nd s y) = true -> y < N) -> 3 * N + 3 <= f ->
    exists s', top_pulse pl f s r now = Some s'.
  Proof.
    intros Hg Ha Hf. unfold top_pulse. destruct (is_root (nd s) r) eqn:Hr; [|eauto].
    destruct (N.leb (agg (nd s r)) now); [|eauto]. destruct (is_root_facts _ _ Hr) as [Hal Hp].
    apply (pulse_aux_fuel_any pl now N f [] nobody s r Hg Ha).
    - constructor; [intros []|constructor].
    - intros z [<-|[]]. now apply Ha.
    - simpl. split; [intros _; assumption|exact I].
    - simpl. lia.
  Qed.

  (* in any reachable (Good) state whose nodes in use have ids below N, with fuel >= 3N+4, no operation
     of the manager runs out of fuel -- whatever the Pulse() callbacks do; GetPulseTime() callbacks perform no operations *)
  Theorem step_total_any f s o N :
    Good nobody (nd s) -> (forall y, alive (nd s y) = true -> y < N) -> 3 * N + 4 <= f ->
    exists s', step gt pl f s o = Some s'.
  Proof.
    intros Hg Ha Hf.
    pose proof (fits_of_ids f (nd s) nobody N Hg Ha Hf) as Hfit.
    destruct o as [c|x|r now|r now|r now]; simpl.
    - destruct (small_rank (nd s) N (c_acyc _ (Good_core _ _ Hg)) (kids_lt_of_alive nobody N (nd s) Hg Ha)) as (rk & He & Hb).
      destruct (apply_cop_fuel nobody rk N N f (nd s) c Hg He Hb Ha) as (m' & ->); [lia|eauto].
    - destruct (alive (nd s x)); eauto.
    - destruct (top_get_total gt gt_pure f s r now Hg Hfit) as (s' & -> & _). eauto.
    - apply (top_pulse_total_any f s r now N); auto. lia.
    - destruct (top_get_total gt gt_pure f s r now Hg Hfit) as (s1 & -> & Hg1 & Hst).
      apply (top_pulse_total_any f s1 r now N); auto; [|lia].
      intros y Hy. apply Ha. destruct (Hst y) as [_ <-]. exact Hy.
  Qed.
End StepFuelAny.

Definition creates_below (N : nat) (o : PulseModel.top) : Prop := match o with TNew x => x < N | _ => True end.

Section RunTotal.
  Variable gt : nmap -> nat -> nat -> N -> N -> N * list cop.
  Variable pl : nmap -> nat -> nat -> N -> N -> list cop.
  Hypothesis gt_pure : forall m x k now prev, snd (gt m x k now prev) = [].

  (* a history that creates only nodes with ids below N never runs out of fuel >= 3N+4, so the other
     theorems (stated for runs/steps that return a state) apply to every such history *)
  Theorem run_total f N : 3 * N + 4 <= f -> forall os s,
    Good nobody (nd s) -> (forall y, alive (nd s y) = true -> y < N) -> Forall (creates_below N) os ->
    exists s', run gt pl f s os = Some s'.
  Proof.
    intros Hf. induction os as [|o t IH]; intros s Hg Ha Hall; simpl; [eauto|].
    inversion Hall as [|? ? Ho Ht]; subst.
    destruct (step_total_any gt pl gt_pure f s o N Hg Ha Hf) as (s1 & Hs). rewrite Hs.
    destruct (step_good gt pl gt_pure f s o s1 Hg Hs) as [Hg1 Hal]. apply IH; [assumption| |assumption].
    intros y Hy. destruct (Hal y Hy) as [H| ->]; [auto|exact Ho].
  Qed.
End RunTotal.
