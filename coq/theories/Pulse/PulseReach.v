(* C20 -- the invariants hold in every state the manager's operations can reach. *)
From Coq Require Import List Arith NArith Bool Lia.
From Muscle Require Import Pulse.PulseModel Pulse.PulseInv Pulse.PulseForest Pulse.PulseResched Pulse.PulseOps Pulse.PulseSweep.
Import ListNotations.

Lemma Good_init : Good nobody empty_map.
Proof.
  constructor; [constructor; [constructor|..]|].
  - constructor; unfold empty_map; simpl.
    + intros p c l Hin. destruct l; destruct Hin.
    + intros c p _ Hp. discriminate.
    + reflexivity.
    + intros p l. destruct l; constructor.
    + discriminate.
    + intros e [].
  - intros x Hx. exfalso. now apply Hx.
  - intros x. unfold empty_map. simpl. split; discriminate.
  - intros p. exact I.
  - intros x. unfold empty_map. simpl. split; apply N.le_refl.
  - exists (fun _ => 0), 0. split; [intros c p Hp; discriminate|intro; lia].
  - intros x _. split; [reflexivity|]. intros y. discriminate.
  - intros c p Hp. discriminate.
  - intros x _ Hsu. unfold empty_map in Hsu. simpl in Hsu. destruct Hsu; discriminate.
  - intros x _ _. right. reflexivity.
Qed.

Lemma Good_new G m x g p :
  Good G m -> alive (m x) = false -> Good G (upd m x (fresh g p)).
Proof.
  intros Hg Hdead. pose proof (Good_core _ _ Hg) as Hc. pose proof (c_wf _ Hc) as Hwf.
  destruct (c_dead _ Hc x Hdead) as [Hpx Hnk].
  assert (Hpar : forall y, parent (upd m x (fresh g p) y) = parent (m y)).
  { intro y. apply upd_proj. now rewrite Hpx. }
  assert (Hun : forall q l, ~ In x (get_list (m q) l)).
  { intros q l Hin. destruct (wf_in _ _ Hwf q x l Hin) as [Hp _]. congruence. }
  apply Good_detached_upd; auto; try reflexivity; try apply N.le_refl; [now apply (wf_root _ _ Hwf)| | |].
  - intro l. destruct (get_list (m x) l) as [|c t] eqn:Hl; [now destruct l|].
    destruct (wf_in _ _ Hwf x c l) as [Hp _]; [rewrite Hl; now left|]. now destruct (Hnk c).
  - apply (acyc_ext m); [assumption|apply (c_acyc _ Hc)].
  - intros y Hy. assert (Hyx : y <> x) by (intro; subst; rewrite upd_same in Hy; discriminate).
    rewrite upd_other in Hy by assumption. destruct (c_dead _ Hc y Hy) as [H1 H2]. split; [now rewrite Hpar|].
    intros z. rewrite Hpar. apply H2.
Qed.

Lemma is_root_facts m r : is_root m r = true -> alive (m r) = true /\ parent (m r) = None.
Proof.
  unfold is_root. intro H. apply andb_prop in H. destruct H as [Ha Hp]. split; [assumption|].
  destruct (parent (m r)); [discriminate|reflexivity].
Qed.

Lemma root_rn G m r : Good G m -> is_root m r = true -> rn (cur (m r)).
Proof. intros Hg Hr. right. apply (wf_root _ _ (Good_wf _ _ Hg)). now apply is_root_facts. Qed.

Section Reach.
  Variable gt : nmap -> nat -> nat -> N -> N -> N * list cop.
  Variable pl : nmap -> nat -> nat -> N -> N -> list cop.
  Hypothesis gt_pure : forall m x k now prev, snd (gt m x k now prev) = [].

  Lemma top_get_inv f s r now s' :
    is_root (nd s) r = true -> top_get gt f s r now = Some s' ->
    exists s1 mn, get_aux gt f now s r NEVER = Some (s1, mn) /\ s' = mkSt (nd s1) (EMin r mn :: evs s1).
  Proof.
    intros Hr H. unfold top_get in H. rewrite Hr in H.
    destruct (get_aux gt f now s r NEVER) as [[s1 mn]|]; [|discriminate]. inversion H. eauto.
  Qed.

  Lemma top_get_good f s r now s' :
    Good nobody (nd s) -> top_get gt f s r now = Some s' ->
    Good nobody (nd s') /\ forall y, parent (nd s' y) = parent (nd s y) /\ alive (nd s' y) = alive (nd s y).
  Proof.
    intros Hg H. destruct (is_root (nd s) r) eqn:Hr; [|unfold top_get in H; rewrite Hr in H; inversion H; subst; auto].
    destruct (top_get_inv f s r now s' Hr H) as (s1 & mn & Ha & ->).
    destruct (get_aux_spec gt gt_pure now f nobody s r NEVER s1 mn Hg (root_rn _ _ _ Hg Hr) Ha) as (? & ? & _). auto.
  Qed.

  Lemma top_pulse_good f s r now s' :
    Good nobody (nd s) -> top_pulse pl f s r now = Some s' -> Good nobody (nd s') /\ op_mono (nd s) (nd s').
  Proof.
    intros Hg H. unfold top_pulse in H. destruct (is_root (nd s) r); [|inversion H; subst; split; [assumption|apply op_mono_refl]].
    destruct (N.leb (agg (nd s r)) now); [|inversion H; subst; split; [assumption|apply op_mono_refl]].
    split; [eapply pulse_aux_good|eapply pulse_aux_mono]; eauto.
  Qed.

  Lemma step_good f s o s' :
    Good nobody (nd s) -> step gt pl f s o = Some s' ->
    Good nobody (nd s') /\ forall y, alive (nd s' y) = true -> alive (nd s y) = true \/ o = TNew y.
  Proof.
    intros Hg H. destruct o as [c|x|r now|r now|r now]; simpl in H.
    - destruct (apply_cop f (nd s) c) as [m|] eqn:Hc; [|discriminate]. inversion H; subst s'. simpl.
      split; [eapply apply_cop_good; eauto|]. intros y Hy. left. now apply (proj1 (apply_cop_frame nobody f (nd s) c m Hg Hc) y).
    - destruct (alive (nd s x)) eqn:Ha; inversion H; subst s'; [auto|]. simpl. split; [now apply Good_new|].
      intros y Hy. destruct (upd_cases (nd s) x (fresh (ngt (nd s x)) (npl (nd s x))) y) as [[-> _]|[_ Hu]]; [now right|].
      left. congruence.
    - destruct (top_get_good f s r now s' Hg H) as [Hg' Hl]. split; [assumption|]. intros y Hy. left. now rewrite <- (proj2 (Hl y)).
    - destruct (top_pulse_good f s r now s' Hg H) as [Hg' Hm]. split; [assumption|]. intros y Hy. left. now apply (Hm y).
    - destruct (top_get gt f s r now) as [s1|] eqn:H1; [|discriminate].
      destruct (top_get_good f s r now s1 Hg H1) as [Hg1 Hl]. destruct (top_pulse_good f s1 r now s' Hg1 H) as [Hg' Hm].
      split; [assumption|]. intros y Hy. left. rewrite <- (proj2 (Hl y)). now apply (Hm y).
  Qed.

  Lemma run_good f : forall os s s', Good nobody (nd s) -> run gt pl f s os = Some s' -> Good nobody (nd s').
  Proof.
    induction os as [|o t IH]; intros s s' Hg H; simpl in H; [inversion H; subst; assumption|].
    destruct (step gt pl f s o) as [s1|] eqn:Hs; [|discriminate]. eapply IH; [|eassumption]. eapply step_good; eauto.
  Qed.

  (* after any history of create / attach / detach / clear / destroy / invalidate operations and
     manager sweeps, with Pulse() callbacks that may themselves perform any such operations on any nodes,
     [Good] holds: the forest is well-formed, the scheduled lists are sorted, the aggregate of a valid node on a
     scheduled or unscheduled list is exact, and a node whose time is not valid is on its parent's needs-recalc
     list (or has no parent) *)
  Theorem reach_inv f os s : run gt pl f init_state os = Some s -> Good nobody (nd s).
  Proof. apply run_good. exact Good_init. Qed.
End Reach.
