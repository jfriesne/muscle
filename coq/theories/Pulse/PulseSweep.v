(* C20 -- the two sweeps (GetPulseTimeAux, PulseAux) keep the invariants (the manager's operations: PulseReach.v).
   Pulse() oracles are arbitrary (they may restructure the forest from inside the callback);
   GetPulseTime() oracles are arbitrary functions that perform no operations. *)
From Coq Require Import List Arith NArith Bool Lia.
From Muscle Require Import Pulse.PulseModel Pulse.PulseInv Pulse.PulseForest Pulse.PulseResched Pulse.PulseOps.
Import ListNotations.

Definition nobody : nat -> Prop := fun _ => False.

Lemma loop_sched_ind2 (P : state -> Prop) call x now :
  (forall s c t s1, P s -> ls (nd s x) = c :: t -> (agg (nd s c) <= now)%N -> call s c = Some s1 -> P s1) ->
  forall k s s', P s -> loop_sched call k x now s = Some s' -> P s'.
Proof.
  intros Hcall. induction k as [|k IH]; intros s s' Hp H; [discriminate|]. simpl in H.
  destruct (ls (nd s x)) as [|c t] eqn:Hl; [inversion H; subst; assumption|].
  destruct (N.leb_spec (agg (nd s c)) now) as [Hle|Hgt]; [|inversion H; subst; assumption].
  destruct (call s c) as [s1|] eqn:Hc; [|discriminate]. eapply IH; [|eassumption]. eapply Hcall; eauto.
Qed.

Lemma loop_sched_ind (P : state -> Prop) call :
  (forall s c s1, P s -> call s c = Some s1 -> P s1) ->
  forall k x now s s', P s -> loop_sched call k x now s = Some s' -> P s'.
Proof. intros Hcall k x now. apply loop_sched_ind2. intros s c t s1 Hp _ _ Hc. eapply Hcall; eauto. Qed.

Lemma loop_recalc_ind (P : state -> N -> Prop) call x :
  (forall s c t mn s1 mn1, P s mn -> lr (nd s x) = c :: t -> call s c mn = Some (s1, mn1) -> P s1 mn1) ->
  forall k s mn s' mn', P s mn -> loop_recalc call k x s mn = Some (s', mn') -> P s' mn' /\ lr (nd s' x) = [].
Proof.
  intros Hcall. induction k as [|k IH]; intros s mn s' mn' Hp H; [discriminate|]. simpl in H.
  destruct (lr (nd s x)) as [|c t] eqn:Hl; [inversion H; subst; auto|].
  destruct (call s c mn) as [[s1 mn1]|] eqn:Hc; [|discriminate]. eapply IH; [|eassumption]. eapply Hcall; eauto.
Qed.

Lemma sorted_head_le m l c :
  sorted m l -> In c l -> (match l with h :: _ => agg (m h) | [] => NEVER end <= agg (m c))%N.
Proof.
  destruct l as [|h t]; [intros _ []|]. simpl. intros [Hh _] [<-|Hin]; [apply N.le_refl|now apply Hh].
Qed.

(* the first scheduled child's aggregate bounds the aggregate of every child on the scheduled or unscheduled list *)
Lemma fsa_le_child m x c :
  Core m -> parent (m c) = Some x -> su (cur (m c)) -> (first_sched_agg m x <= agg (m c))%N.
Proof.
  intros Hc Hp [Hs|Hu]; unfold first_sched_agg.
  - assert (Hin : In c (ls (m x))).
    { pose proof (wf_par _ _ (c_wf _ Hc) c x (fun F => F) Hp) as Hin. rewrite Hs in Hin. apply Hin. discriminate. }
    pose proof (sorted_head_le m (ls (m x)) c (c_k5 _ Hc x) Hin) as Hle. destruct (ls (m x)); [destruct Hin|exact Hle].
  - rewrite (proj2 (c_k4 _ Hc c) Hu). destruct (ls (m x)); [apply N.le_refl|apply (c_k6 _ Hc)].
Qed.

Lemma Good_weaken (G G' : nat -> Prop) m : (forall y, G y -> G' y) -> Good G m -> Good G' m.
Proof. intros Hs [Hi Hk]. constructor; [assumption|]. intros y HG. apply Hk. auto. Qed.

Lemma resched_SU_good G f m p c w m' :
  Good G m -> parent (m c) = Some p -> cur (m c) = LRecalc ->
  w = (if N.eqb (agg (m c)) NEVER then LUnsched else LSched) ->
  lr (m c) = [] -> valid (m c) = true ->
  agg (m c) = N.min (sched (m c)) (first_sched_agg m c) ->
  resched f m p c w = Some m' ->
  Good G m' /\ same_scalars m m' /\ (forall y, y <> c -> cur (m' y) = cur (m y)) /\ cur (m' c) = w /\
  (forall q, q <> p -> forall l, get_list (m' q) l = get_list (m q) l).
Proof.
  intros [[Hc Hl Hk3] Hk2] Hpar Hcur Hwe Hlr Hv Hagg H.
  assert (Hw : su w) by (subst w; destruct (N.eqb _ _); [right|left]; reflexivity).
  pose proof (c_wf _ Hc) as Hwf.
  assert (Hns : forall x, parent (m x) <> Some x) by apply (wf_noself _ _ Hwf).
  assert (Hpc : p <> c) by (intro; subst; now apply (Hns c)).
  pose proof (resched_scalars f m p c w m' Hpar Hns H) as Hsc.
  destruct (resched_cur f m p c w m' Hpar Hns H) as [Hcc Hco].
  assert (Hco' : forall y, y <> c -> cur (m' y) = cur (m y)).
  { intros y Hy. destruct (Hco y Hy) as [He|[Hr _]]; [assumption|]. destruct Hw; congruence. }
  assert (HL1 : forall q, q <> p -> forall l, get_list (m' q) l = get_list (m q) l).
  { destruct f as [|f]; [discriminate|]. rewrite resched_unfold in H.
    assert (Hno : lst_eqb w (cur (m c)) && negb (lst_eqb (cur (m c)) LSched) = false).
    { rewrite Hcur. destruct Hw as [-> | ->]; reflexivity. }
    rewrite Hno in H. cbv zeta in H. intros q Hq l.
    destruct Hw as [-> | ->]; inversion H; subst m'; rewrite upd_other by assumption; now apply unlink_list_o. }
  assert (Hinp : In c (lr (m p))).
  { pose proof (wf_par _ _ Hwf c p (fun F => F) Hpar) as Hin. rewrite Hcur in Hin. apply Hin. discriminate. }
  assert (Hrnp : rn (cur (m p))).
  { apply (c_k1 _ Hc). intro He. rewrite He in Hinp. destruct Hinp. }
  split; [|split; [assumption|split; [assumption|split; assumption]]].
  constructor; [constructor; [constructor|..]|].
  - apply (resched_WFx f noexc m p c w m' Hwf Hpar); [intros []|exact H].
  - intros x Hx. destruct (Nat.eq_dec x c) as [->|Hxc].
    + exfalso. apply Hx. change (get_list (m' c) LRecalc = []). rewrite HL1 by congruence. exact Hlr.
    + rewrite Hco' by assumption. apply (c_k1 _ Hc).
      destruct (Nat.eq_dec x p) as [->|Hxp].
      * intro He. rewrite He in Hinp. destruct Hinp.
      * change (get_list (m x) LRecalc <> []). rewrite <- HL1 by assumption. exact Hx.
  - intros x. destruct (Hsc x) as (_&Ha&_). rewrite Ha.
    destruct (Nat.eq_dec x c) as [->|Hxc].
    + rewrite Hcc, Hwe. destruct (N.eqb_spec (agg (m c)) NEVER); split; congruence.
    + rewrite Hco' by assumption. apply (c_k4 _ Hc).
  - eapply resched_K5; eauto. apply (c_k5 _ Hc).
  - eapply K6_mono; eauto. apply (c_k6 _ Hc).
  - eapply acyc_mono; eauto. apply (c_acyc _ Hc).
  - eapply dead_inert_mono; eauto. apply (c_dead _ Hc).
  - intros y q Hq. destruct (Hsc y) as (Hpy&_). rewrite Hpy in Hq.
    destruct (Nat.eq_dec y c) as [->|Hy]; [rewrite Hcc; destruct Hw; congruence|].
    rewrite Hco' by assumption. eapply Hl; eauto.
  - apply K3_all. intro y. destruct (Hsc y) as (_&Hay&Hsy&Hvy&_).
    assert (Hagz : forall z, agg (m' z) = agg (m z)) by (intro z; now destruct (Hsc z) as (_&?&_)).
    destruct (Nat.eq_dec y p) as [->|Hyp].
    + intros _ Hsu. rewrite Hco' in Hsu by assumption. exfalso. eapply rn_not_su; eauto.
    + assert (Hf : first_sched_agg m' y = first_sched_agg m y).
      { apply fsa_ext; [|exact Hagz]. change (get_list (m' y) LSched = get_list (m y) LSched). now apply HL1. }
      destruct (Nat.eq_dec y c) as [->|Hyc].
      * intros _ _. rewrite Hay, Hsy, Hf. exact Hagg.
      * apply K3at_ext with (m := m); auto. now apply K3_all.
  - intros y HG Hvy. destruct (Hsc y) as (_&_&_&Hvy'&_). rewrite Hvy' in Hvy.
    destruct (Nat.eq_dec y c) as [->|Hy]; [congruence|]. rewrite Hco' by assumption. now apply Hk2.
Qed.

(* _aggregatePulseTime = ...  on a node that is on the needs-recalc list (or on none) *)
Lemma Good_agg_upd G m x a :
  Good G m -> rn (cur (m x)) -> (a <= NEVER)%N -> Good G (upd m x (set_agg (m x) a)).
Proof.
  intros [[Hc Hl Hk3] Hk2] Hrn Ha. set (m' := upd m x (set_agg (m x) a)).
  assert (Hs : same_struct m m') by (apply same_struct_upd_scalar; reflexivity).
  pose proof (c_wf _ Hc) as Hwf.
  assert (Hag : forall y, y <> x -> agg (m' y) = agg (m y)) by (intros y Hy; unfold m'; now rewrite upd_other).
  assert (Hmem : forall q y, In y (ls (m q)) -> y <> x).
  { intros q y Hin Hy. subst y. destruct (wf_in _ _ Hwf q x LSched Hin) as [_ Hcx].
    destruct Hrn as [Hr|Hr]; congruence. }
  assert (Hsv : forall y, sched (m' y) = sched (m y) /\ valid (m' y) = valid (m y)).
  { intro y. unfold m'. destruct (upd_cases m x (set_agg (m x) a) y) as [[-> ->]|[_ ->]]; split; reflexivity. }
  destruct Hc as [_ Hk1 Hk4 Hk5 Hk6 Hac Hd].
  constructor; [constructor; [constructor|..]|].
  - eapply WFx_struct; eauto.
  - eapply K1_struct; eauto.
  - intro y. destruct (Hs y) as (_&Hcy&_). rewrite Hcy. destruct (Nat.eq_dec y x) as [->|Hy].
    + destruct Hrn as [Hr|Hr]; rewrite Hr; split; discriminate.
    + rewrite Hag by assumption. apply Hk4.
  - intro q. destruct (Hs q) as (_&_&Hlq&_). rewrite Hlq. apply sorted_ext with (m := m); [|apply Hk5].
    intros y Hin. apply Hag. eapply Hmem; eauto.
  - intro y. destruct (Hsv y) as [Hsy _]. rewrite Hsy. split; [apply Hk6|].
    destruct (Nat.eq_dec y x) as [->|Hy]; [unfold m'; rewrite upd_same; exact Ha|rewrite Hag by assumption; apply Hk6].
  - eapply acyc_struct; eauto.
  - eapply dead_inert_struct; eauto.
  - eapply listed_struct; eauto.
  - apply K3_all. intro y. destruct (Hs y) as (_&Hcy&Hly&_). destruct (Hsv y) as [Hsy Hvy].
    destruct (Nat.eq_dec y x) as [->|Hy].
    + intros _ Hsu. rewrite Hcy in Hsu. exfalso. eapply rn_not_su; eauto.
    + apply K3at_ext with (m := m); auto; [|now apply K3_all].
      unfold first_sched_agg. rewrite Hly. destruct (ls (m y)) as [|h t] eqn:Hls; [reflexivity|].
      apply Hag. apply (Hmem y h). rewrite Hls. now left.
  - intros y HG Hv. destruct (Hs y) as (_&Hcy&_). destruct (Hsv y) as [_ Hvy]. rewrite Hcy. rewrite Hvy in Hv. now apply Hk2.
Qed.

Lemma Good_asked G m x : Good G m -> rn (cur (m x)) -> Good G (upd m x (set_ngt (set_valid (m x) true) (S (ngt (m x))))).
Proof.
  intros Hg Hrn. apply Good_scalar_upd; try reflexivity; [exact Hg|apply (c_k6 _ (Good_core _ _ Hg))| |discriminate].
  intros _ Hsu. exfalso. eapply rn_not_su; eauto.
Qed.

Lemma Good_answered G m x t :
  Good G m -> rn (cur (m x)) -> valid (m x) = true -> Good G (upd m x (set_sched (m x) (N.min t NEVER))).
Proof.
  intros Hg Hrn Hv. apply Good_scalar_upd; try reflexivity; [exact Hg|apply N.le_min_r| |simpl; congruence].
  intros _ Hsu. exfalso. eapply rn_not_su; eauto.
Qed.

Section PulseSweep.
  Variable pl : nmap -> nat -> nat -> N -> N -> list cop.

  Lemma Good_count_pulse G m x : Good G m -> Good G (upd m x (set_npl (m x) (S (npl (m x))))).
  Proof.
    intro Hg. apply Good_scalar_upd; try reflexivity; [exact Hg|apply (c_k6 _ (Good_core _ _ Hg))|auto|].
    intros Hv HG. now apply (g_k2 _ _ Hg).
  Qed.

  Lemma pulse_self_good G f s x now s1 :
    Good G (nd s) -> pulse_self pl f s x now = Some s1 -> Good (fun y => G y \/ y = x) (nd s1).
  Proof.
    intros Hg H. unfold pulse_self in H.
    destruct (valid (nd s x) && N.leb (sched (nd s x)) now).
    - destruct (run_cops f _ _) as [m2|] eqn:Hr; [|discriminate]. inversion H; subst s1. simpl.
      pose proof (proj1 (run_cops_spec G f _ _ m2 (Good_count_pulse G (nd s) x Hg) Hr)) as Hg2.
      apply Good_scalar_upd; try reflexivity.
      + eapply Good_weaken; [|exact Hg2]. tauto.
      + apply (c_k6 _ (Good_core _ _ Hg2)).
      + discriminate.
      + intros _ HG. exfalso. apply HG. now right.
    - inversion H; subst. eapply Good_weaken; [|exact Hg]. tauto.
  Qed.

  Lemma pulse_self_mono G f s x now s1 :
    Good G (nd s) -> pulse_self pl f s x now = Some s1 -> op_mono (nd s) (nd s1).
  Proof.
    intros Hg H. unfold pulse_self in H.
    destruct (valid (nd s x) && N.leb (sched (nd s x)) now); [|inversion H; subst; apply op_mono_refl].
    set (m1 := upd (nd s) x (set_npl (nd s x) (S (npl (nd s x))))) in *.
    destruct (run_cops f m1 _) as [m2|] eqn:Hr; [|discriminate]. inversion H; subst s1. simpl.
    apply op_mono_trans with m1; [apply (frame_at (nd s) m1 x); unfold m1; [intros; now apply upd_other|rewrite upd_same; auto..]|].
    apply op_mono_trans with m2; [eapply run_cops_spec; [apply Good_count_pulse|]; eassumption|].
    apply (frame_at m2 _ x); [intros; now apply upd_other|rewrite upd_same; auto..]. discriminate.
  Qed.

  Lemma pulse_aux_inv now f G s x s' :
    Good G (nd s) -> pulse_aux pl (S f) now s x = Some s' ->
    exists s1 s2 m3, pulse_self pl f s x now = Some s1 /\ Good (fun y => G y \/ y = x) (nd s1) /\
      loop_sched (pulse_aux pl f now) f x now s1 = Some s2 /\ resched_up f (nd s2) x = Some m3 /\ s' = mkSt m3 (evs s2).
  Proof.
    intros Hg H. simpl in H.
    destruct (pulse_self pl f s x now) as [s1|] eqn:Hs; [|discriminate].
    destruct (loop_sched (pulse_aux pl f now) f x now s1) as [s2|] eqn:Hl; [|discriminate].
    destruct (resched_up f (nd s2) x) as [m3|] eqn:Hr; [|discriminate]. inversion H.
    exists s1, s2, m3. split; [reflexivity|]. split; [eapply pulse_self_good; eauto|auto].
  Qed.

  Lemma pulse_aux_good now : forall f G s x s',
    Good G (nd s) -> pulse_aux pl f now s x = Some s' -> Good G (nd s').
  Proof.
    induction f as [|f IH]; intros G s x s' Hg H; [discriminate|].
    destruct (pulse_aux_inv now f G s x s' Hg H) as (s1 & s2 & m3 & Hs & Hg1 & Hl & Hr & ->). simpl.
    assert (Hg2 : Good (fun y => G y \/ y = x) (nd s2)).
    { apply (loop_sched_ind (fun s => Good (fun y => G y \/ y = x) (nd s)) (pulse_aux pl f now)) with (k := f) (x := x) (now := now) (s := s1); auto.
      intros s0 c s3 Hp Hc. eapply IH; eauto. }
    destruct Hg2 as [[Hc Hli Hk3] Hk2].
    eapply resched_up_good; eauto; [intros y _; now apply K3_all|].
    intros y Hy HG Hv. apply Hk2; [|assumption]. tauto.
  Qed.

  (* a reflexive, transitive relation between states that holds across a node's own Pulse() step and across the
     final move to the needs-recalc list holds across a whole PulseAux frame *)
  Lemma pulse_aux_rel (R : state -> state -> Prop) now :
    (forall s, R s s) -> (forall s1 s2 s3, R s1 s2 -> R s2 s3 -> R s1 s3) ->
    (forall G f s x s1, Good G (nd s) -> pulse_self pl f s x now = Some s1 -> R s s1) ->
    (forall G f s x m3, Good G (nd s) -> resched_up f (nd s) x = Some m3 -> R s (mkSt m3 (evs s))) ->
    forall f G s x s', Good G (nd s) -> pulse_aux pl f now s x = Some s' -> R s s'.
  Proof.
    intros Hrefl Htrans Hself Hup. induction f as [|f IH]; intros G s x s' Hg H; [discriminate|].
    destruct (pulse_aux_inv now f G s x s' Hg H) as (s1 & s2 & m3 & Hs & Hg1 & Hl & Hr & ->).
    assert (H2 : Good (fun y => G y \/ y = x) (nd s2) /\ R s1 s2).
    { apply (loop_sched_ind (fun si => Good (fun y => G y \/ y = x) (nd si) /\ R s1 si) (pulse_aux pl f now))
        with (k := f) (x := x) (now := now) (s := s1); auto.
      intros s0 c s3 [Hp He] Hc. split; [eapply pulse_aux_good; eauto|]. eapply Htrans; [exact He|]. eapply IH; eauto. }
    destruct H2 as [Hg2 R2]. eapply Htrans; [eapply Hself; eauto|]. eapply Htrans; [exact R2|]. eapply Hup; eauto.
  Qed.

  Lemma pulse_aux_rn now f G s x s' : Good G (nd s) -> pulse_aux pl f now s x = Some s' -> rn (cur (nd s' x)).
  Proof.
    intros Hg H. destruct f as [|f]; [discriminate|].
    destruct (pulse_aux_inv now f G s x s' Hg H) as (s1 & s2 & m3 & Hs & Hg1 & Hl & Hr & ->). simpl.
    assert (Hg2 : Good (fun y => G y \/ y = x) (nd s2)).
    { apply (loop_sched_ind (fun s => Good (fun y => G y \/ y = x) (nd s)) (pulse_aux pl f now)) with (k := f) (x := x) (now := now) (s := s1);
        [|exact Hg1|exact Hl].
      intros s0 c s3 Hp Hc. eapply pulse_aux_good; eauto. }
    pose proof (Good_wf _ _ Hg2) as Hwf.
    unfold resched_up in Hr. destruct (parent (nd s2 x)) as [p|] eqn:Hp.
    - left. apply (resched_cur f (nd s2) p x LRecalc m3 Hp (wf_noself _ _ Hwf) Hr).
    - inversion Hr; subst m3. right. now apply (wf_root _ _ Hwf).
  Qed.

  Lemma pulse_aux_mono now f G s x s' : Good G (nd s) -> pulse_aux pl f now s x = Some s' -> op_mono (nd s) (nd s').
  Proof.
    revert f G s x s'. apply (pulse_aux_rel (fun s s' => op_mono (nd s) (nd s')) now).
    - intro s. apply op_mono_refl.
    - intros s1 s2 s3. apply op_mono_trans.
    - intros G f s x s1. apply pulse_self_mono.
    - intros G f s x m3 Hg Hr. eapply resched_up_frame; [|exact Hr]. apply (wf_noself _ _ (Good_wf _ _ Hg)).
  Qed.

End PulseSweep.

Section Sweeps.
  Variable gt : nmap -> nat -> nat -> N -> N -> N * list cop.

  Hypothesis gt_pure : forall m x k now prev, snd (gt m x k now prev) = [].

  Lemma get_self_good G f s x now s1 :
    Good G (nd s) -> rn (cur (nd s x)) -> get_self gt f s x now = Some s1 ->
    Good G (nd s1) /\ valid (nd s1 x) = true /\ same_struct (nd s) (nd s1) /\
    (forall z, z <> x -> nd s1 z = nd s z) /\ agg (nd s1 x) = agg (nd s x).
  Proof.
    intros Hg Hrn H. unfold get_self in H. destruct (valid (nd s x)) eqn:Hv.
    - inversion H; subst s1. split; [assumption|]. split; [assumption|]. split; [intro y; repeat split|]. split; [reflexivity|reflexivity].
    - rewrite gt_pure in H. simpl in H. inversion H; subst s1. simpl. clear H.
      set (m1 := upd (nd s) x (set_ngt (set_valid (nd s x) true) (S (ngt (nd s x))))).
      pose proof (Good_asked G (nd s) x Hg Hrn) as Hg1. fold m1 in Hg1.
      assert (Hm1x : m1 x = set_ngt (set_valid (nd s x) true) (S (ngt (nd s x)))) by (unfold m1; apply upd_same).
      split; [|split; [|split; [|split]]].
      + apply Good_answered; [exact Hg1|now rewrite Hm1x|now rewrite Hm1x].
      + rewrite upd_same. rewrite Hm1x. reflexivity.
      + intro y. destruct (Nat.eq_dec y x) as [->|Hy].
        * rewrite upd_same, Hm1x. simpl. repeat split.
        * rewrite upd_other by assumption. unfold m1. rewrite upd_other by assumption. repeat split.
      + intros z Hz. rewrite upd_other by assumption. unfold m1. now rewrite upd_other.
      + rewrite upd_same, Hm1x. reflexivity.
  Qed.

  Definition frame_but (x : nat) (m m' : nmap) : Prop :=
    (forall y, parent (m' y) = parent (m y) /\ alive (m' y) = alive (m y)) /\
    (forall z, z <> x -> cur (m' z) = cur (m z) /\ valid (m' z) = valid (m z) /\ sched (m' z) = sched (m z) /\ agg (m' z) = agg (m z)).

  Lemma get_finish_good G f s x mn s' mn' :
    Good G (nd s) -> rn (cur (nd s x)) -> valid (nd s x) = true -> lr (nd s x) = [] ->
    get_finish f s x mn = Some (s', mn') ->
    Good G (nd s') /\ frame_but x (nd s) (nd s') /\
    valid (nd s' x) = true /\ sched (nd s' x) = sched (nd s x) /\
    agg (nd s' x) = N.min (sched (nd s x)) (first_sched_agg (nd s) x) /\
    (parent (nd s x) = None \/ su (cur (nd s' x))) /\
    (forall q, parent (nd s x) <> Some q -> forall l, get_list (nd s' q) l = get_list (nd s q) l) /\
    mn' = N.min mn (agg (nd s' x)).
  Proof.
    intros Hg Hrn Hv Hlr H. unfold get_finish in H.
    set (m := nd s) in *. set (a := N.min (sched (m x)) (first_sched_agg m x)) in *.
    set (m1 := upd m x (set_agg (m x) a)) in *.
    pose proof (Good_core _ _ Hg) as Hc. pose proof (c_wf _ Hc) as Hwf.
    assert (Ha : (a <= NEVER)%N).
    { unfold a. etransitivity; [apply N.le_min_l|]. apply (c_k6 _ Hc). }
    pose proof (Good_agg_upd G m x a Hg Hrn Ha) as Hg1. fold m1 in Hg1.
    assert (Hm1x : m1 x = set_agg (m x) a) by (unfold m1; apply upd_same).
    assert (Hm1o : forall z, z <> x -> m1 z = m z) by (intros z Hz; unfold m1; now apply upd_other).
    assert (Hmin : (if N.ltb a mn then a else mn) = N.min mn a).
    { destruct (N.ltb_spec a mn); lia. }
    assert (Hfsa : first_sched_agg m1 x = first_sched_agg m x).
    { unfold first_sched_agg. rewrite Hm1x. simpl. destruct (ls (m x)) as [|h t] eqn:Hls; [reflexivity|].
      assert (h <> x).
      { intro; subst h. destruct (wf_head _ _ x LSched x _ Hwf Hls) as [Hp _].
        now apply (wf_noself _ _ Hwf x). }
      now rewrite Hm1o. }
    assert (Hfr1 : frame_but x m m1).
    { split; [intro y; unfold m1; destruct (upd_cases m x (set_agg (m x) a) y) as [[-> ->]|[_ ->]]; split; reflexivity|].
      intros z Hz. rewrite Hm1o by assumption. repeat split. }
    assert (Hpx : parent (m1 x) = parent (m x)) by (rewrite Hm1x; reflexivity).
    rewrite Hpx in H. destruct (parent (m x)) as [p|] eqn:Hp.
    - assert (Hcx : cur (m x) = LRecalc).
      { destruct Hrn as [Hr|Hr]; [assumption|]. exfalso. eapply (i_listed _ (g_inv _ _ Hg)); eauto. }
      assert (Hcx1 : cur (m1 x) = LRecalc) by (rewrite Hm1x; exact Hcx).
      rewrite Hcx1 in H. simpl in H.
      set (w := if N.eqb a NEVER then LUnsched else LSched) in *.
      destruct (resched f m1 p x w) as [m2|] eqn:Hr; [|discriminate]. inversion H; subst s' mn'. simpl. clear H.
      assert (P1 : parent (m1 x) = Some p) by (rewrite Hm1x; exact Hp).
      assert (Hw : w = (if N.eqb (agg (m1 x)) NEVER then LUnsched else LSched)) by now rewrite Hm1x.
      assert (P2 : lr (m1 x) = []) by (rewrite Hm1x; exact Hlr).
      assert (P3 : valid (m1 x) = true) by (rewrite Hm1x; exact Hv).
      assert (P6 : agg (m1 x) = N.min (sched (m1 x)) (first_sched_agg m1 x)).
      { rewrite Hfsa. rewrite Hm1x. reflexivity. }
      destruct (resched_SU_good G f m1 p x w m2 Hg1 P1 Hcx1 Hw P2 P3 P6 Hr) as (Hg2 & Hsc & Hco & Hcc & HL).
      { destruct (Hsc x) as (_&Hax&Hsx&Hvx&_).
        split; [assumption|]. split.
        { split.
          - intro y. destruct (Hsc y) as (Hpy&_&_&_&Hay&_). destruct (proj1 Hfr1 y) as [H1 H2]. split; congruence.
          - intros z Hz. destruct (Hsc z) as (_&Haz&Hsz&Hvz&_). destruct (proj2 Hfr1 z Hz) as (H1&H2&H3&H4).
            rewrite Hco by assumption. repeat split; congruence. }
        split; [rewrite Hvx, Hm1x; exact Hv|]. split; [rewrite Hsx, Hm1x; reflexivity|].
        split; [rewrite Hax, Hm1x; reflexivity|]. split; [right; rewrite Hcc; unfold w; destruct (N.eqb a NEVER); [right|left]; reflexivity|].
        split.
        * intros q Hq l. rewrite HL by congruence. destruct (Nat.eq_dec q x) as [->|Hqx]; [rewrite Hm1x; now destruct l|now rewrite Hm1o].
        * rewrite Hmin. f_equal. rewrite Hax, Hm1x. reflexivity. }
    - inversion H; subst s' mn'. simpl. clear H.
      split; [assumption|]. split; [assumption|]. split; [rewrite Hm1x; exact Hv|]. split; [rewrite Hm1x; reflexivity|].
      split; [rewrite Hm1x; reflexivity|]. split; [now left|]. split.
      + intros q _ l. destruct (Nat.eq_dec q x) as [->|Hqx]; [rewrite Hm1x; now destruct l|now rewrite Hm1o].
      + rewrite Hmin. f_equal. rewrite Hm1x. reflexivity.
  Qed.

  Lemma get_finish_scalars G f s x mn s' mn' :
    Good G (nd s) -> get_finish f s x mn = Some (s', mn') ->
    evs s' = evs s /\ forall y, valid (nd s' y) = valid (nd s y) /\ sched (nd s' y) = sched (nd s y).
  Proof.
    intros Hg H. unfold get_finish in H.
    set (m1 := upd (nd s) x (set_agg (nd s x) (N.min (sched (nd s x)) (first_sched_agg (nd s) x)))) in *.
    assert (H1 : forall y, valid (m1 y) = valid (nd s y) /\ sched (m1 y) = sched (nd s y) /\ parent (m1 y) = parent (nd s y)).
    { intro y. unfold m1. destruct (upd_cases (nd s) x (set_agg (nd s x) (N.min (sched (nd s x)) (first_sched_agg (nd s) x))) y)
        as [[-> ->]|[_ ->]]; auto. }
    assert (Hns : forall y, parent (m1 y) <> Some y).
    { intro y. destruct (H1 y) as (_ & _ & ->). apply (wf_noself _ _ (Good_wf _ _ Hg)). }
    assert (Hsame : Some m1 = Some (nd s') -> forall y, valid (nd s' y) = valid (nd s y) /\ sched (nd s' y) = sched (nd s y)).
    { intros E y. inversion E. destruct (H1 y) as (? & ? & _). auto. }
    destruct (parent (m1 x)) as [p|] eqn:Hp; [destruct (_ || _)|].
    2: { inversion H; subst. split; [reflexivity|]. now apply Hsame. }   (* no move within the parent's lists *)
    2: { inversion H; subst. split; [reflexivity|]. now apply Hsame. }   (* no parent *)
    destruct (resched f m1 p x _) as [m2|] eqn:Hr; [|discriminate]. inversion H; subst. split; [reflexivity|]. simpl.
    intro y. destruct (H1 y) as (A & B & _).
    destruct (resched_scalars f m1 p x _ m2 Hp Hns Hr y) as (_ & _ & C & D & _).
    split; congruence.
  Qed.

  Lemma get_finish_exact G f s x mn s' mn' :
    Good G (nd s) -> rn (cur (nd s x)) -> valid (nd s x) = true -> lr (nd s x) = [] ->
    get_finish f s x mn = Some (s', mn') ->
    lr (nd s' x) = [] /\ agg (nd s' x) = N.min (sched (nd s' x)) (first_sched_agg (nd s') x).
  Proof.
    intros Hg Hrn Hv Hlr H.
    destruct (get_finish_good G f s x mn s' mn' Hg Hrn Hv Hlr H) as (_ & [_ Hfo] & _ & Hs' & Ha' & _ & HL' & _).
    pose proof (Good_wf _ _ Hg) as Hwf.
    assert (Hxx : parent (nd s x) <> Some x) by apply (wf_noself _ _ Hwf).
    split; [change (get_list (nd s' x) LRecalc = []); now rewrite HL'|].
    rewrite Ha', Hs'. f_equal. unfold first_sched_agg.
    change (ls (nd s' x)) with (get_list (nd s' x) LSched). rewrite HL' by assumption. simpl.
    destruct (ls (nd s x)) as [|h t] eqn:Hls; [reflexivity|]. symmetry. apply Hfo.
    intro; subst h. destruct (wf_head _ _ x LSched x _ Hwf Hls) as [Hp _]. contradiction.
  Qed.

  Definition same_fields (m m' : nmap) (z : nat) : Prop :=
    cur (m' z) = cur (m z) /\ valid (m' z) = valid (m z) /\ sched (m' z) = sched (m z) /\ agg (m' z) = agg (m z).

  Lemma get_aux_spec now : forall f G s x mn s' mn',
    Good G (nd s) -> rn (cur (nd s x)) -> get_aux gt f now s x mn = Some (s', mn') ->
    Good G (nd s') /\
    (forall y, parent (nd s' y) = parent (nd s y) /\ alive (nd s' y) = alive (nd s y)) /\
    (forall z, ~ desc (nd s) x z -> same_fields (nd s) (nd s') z) /\
    valid (nd s' x) = true /\ lr (nd s' x) = [] /\
    agg (nd s' x) = N.min (sched (nd s' x)) (first_sched_agg (nd s') x) /\
    (parent (nd s x) = None \/ su (cur (nd s' x))) /\
    mn' = N.min mn (agg (nd s' x)) /\
    (forall z, cur (nd s' z) = LRecalc -> cur (nd s z) = LRecalc).
  Proof.
    induction f as [|f IH]; intros G s x mn s' mn' Hg Hrn H; [discriminate|]. simpl in H.
    destruct (get_self gt f s x now) as [s1|] eqn:Hself; [|discriminate].
    destruct (loop_recalc (get_aux gt f now) f x s1 mn) as [[s2 mn2]|] eqn:Hloop; [|discriminate].
    destruct (get_self_good G f s x now s1 Hg Hrn Hself) as (Hg1 & Hv1 & Hst1 & Ho1 & Ha1).
    set (P := fun (si : state) (mi : N) =>
      Good G (nd si) /\
      (forall y, parent (nd si y) = parent (nd s y) /\ alive (nd si y) = alive (nd s y)) /\
      (forall z, ~ desc (nd s) x z -> same_fields (nd s) (nd si) z) /\
      valid (nd si x) = true /\ cur (nd si x) = cur (nd s x) /\
      (forall z, cur (nd si z) = LRecalc -> cur (nd s z) = LRecalc) /\
      (mi <= mn)%N /\
      (* mi is not below the minimum of mn and the aggregates of the children recalculated so far *)
      (forall B, (B <= mn)%N ->
         (forall c, parent (nd si c) = Some x -> su (cur (nd si c)) -> (B <= agg (nd si c))%N) -> (B <= mi)%N)).
    assert (HP1 : P s1 mn).
    { unfold P. split; [assumption|]. split; [|split; [|split; [assumption|split; [|split; [|split]]]]].
      - intro y. destruct (Hst1 y) as (H1&_&_&_&_&H2). auto.
      - intros z Hz. assert (z <> x) by (intro; subst; apply Hz; constructor).
        unfold same_fields. rewrite Ho1 by assumption. repeat split.
      - now destruct (Hst1 x) as (_&?&_).
      - intros z. destruct (Hst1 z) as (_&->&_). auto.
      - apply N.le_refl.
      - intros B HB _. exact HB. }
    assert (Hstep : forall si c t mi si1 mi1, P si mi -> lr (nd si x) = c :: t ->
                      get_aux gt f now si c mi = Some (si1, mi1) -> P si1 mi1).
    { intros si c t mi si1 mi1 (Hgi & Hpi & Hfi & Hvi & Hci & Hmono & Hmi & HQi) Hl Hcall.
      pose proof (Good_core _ _ Hgi) as Hcore. pose proof (c_wf _ Hcore) as Hwf.
      assert (Hcin : In c (get_list (nd si x) LRecalc)) by (simpl; rewrite Hl; now left).
      destruct (wf_in _ _ Hwf x c LRecalc Hcin) as [Hpc Hcc].
      destruct (IH G si c mi si1 mi1 Hgi (or_introl Hcc) Hcall) as (Hg' & Hp' & Hf' & Hv' & Hlr' & Hagg' & Hsu' & Hmn' & Hmono').
      assert (Hncx : ~ desc (nd si) c x) by (apply acyc_no_cycle; [apply (c_acyc _ Hcore)|assumption]).
      assert (Hdsub : forall z, desc (nd si) c z -> desc (nd s) x z).
      { intros z Hd. apply desc_trans with (b := c).
        - eapply desc_child; [constructor|]. destruct (Hpi c) as [Hq _]. congruence.
        - apply (desc_parent_ext (nd si)); [|assumption]. intro y. now destruct (Hpi y) as [? _]. }
      unfold P. split; [assumption|]. split; [|split; [|split; [|split; [|split; [|split]]]]].
      - intro y. destruct (Hp' y) as [H1 H2]. destruct (Hpi y) as [H3 H4]. split; congruence.
      - intros z Hz. destruct (Hfi z Hz) as (F1&F2&F3&F4).
        destruct (Hf' z) as (E1&E2&E3&E4); [intro Hd; apply Hz; now apply Hdsub|].
        repeat split; congruence.
      - destruct (Hf' x Hncx) as (_&E2&_). congruence.
      - destruct (Hf' x Hncx) as (E1&_). congruence.
      - intros z Hz. auto.
      - rewrite Hmn'. etransitivity; [apply N.le_min_l|assumption].
      - intros B HB Hall. rewrite Hmn'. apply N.min_glb.
        + apply HQi; [assumption|]. intros c' Hpc' Hsu'c.
          assert (Hne : c' <> c) by (intro; subst c'; rewrite Hcc in Hsu'c; destruct Hsu'c; discriminate).
          assert (Hnd' : ~ desc (nd si) c c').
          { intro Hd. apply desc_inv in Hd. destruct Hd as [?|(q & Hq & Hd)]; [congruence|].
            rewrite Hpc' in Hq. inversion Hq; subst q. contradiction. }
          destruct (Hf' c' Hnd') as (E1&_&_&E4). rewrite <- E4. apply Hall.
          * destruct (Hp' c') as [Hq _]. congruence.
          * now rewrite E1.
        + apply Hall.
          * destruct (Hp' c) as [Hq _]. congruence.
          * destruct Hsu' as [Hn|Hs]; [congruence|assumption]. }
    destruct (loop_recalc_ind P (get_aux gt f now) x Hstep f s1 mn s2 mn2 HP1 Hloop)
      as ((Hg2 & Hp2 & Hf2 & Hv2 & Hc2 & Hmono2 & Hm2 & HQ2) & Hlr2).
    assert (Hrn2 : rn (cur (nd s2 x))) by (rewrite Hc2; assumption).
    destruct (get_finish_good G f s2 x mn2 s' mn' Hg2 Hrn2 Hv2 Hlr2 H)
      as (Hg' & [Hfp Hfo] & Hv' & Hs' & Ha' & Hsu' & HL' & Hmn').
    destruct (get_finish_exact G f s2 x mn2 s' mn' Hg2 Hrn2 Hv2 Hlr2 H) as [Hlr' Hex'].
    pose proof (Good_core _ _ Hg2) as Hcore2. pose proof (c_wf _ Hcore2) as Hwf2.
    split; [assumption|]. split; [|split; [|split; [assumption|split; [|split; [|split; [|split]]]]]].
    - intro y. destruct (Hfp y) as [H1 H2]. destruct (Hp2 y) as [H3 H4]. split; congruence.
    - intros z Hz. assert (z <> x) by (intro; subst; apply Hz; constructor).
      destruct (Hf2 z Hz) as (F1&F2&F3&F4). destruct (Hfo z H0) as (E1&E2&E3&E4). repeat split; congruence.
    - exact Hlr'.
    - exact Hex'.
    - destruct Hsu' as [Hn|Hs]; [left|right; assumption]. destruct (Hp2 x) as [Hq _]. congruence.
    - rewrite Hmn'. set (a := agg (nd s' x)) in *.
      assert (HB : (N.min mn a <= mn2)%N).
      { apply HQ2; [apply N.le_min_l|]. intros c Hpc Hsuc. etransitivity; [apply N.le_min_r|].
        rewrite Ha'. etransitivity; [apply N.le_min_r|]. now apply fsa_le_child. }
      lia.
    - intros z Hz. apply Hmono2. destruct (Nat.eq_dec z x) as [->|Hzx].
      + destruct Hsu' as [Hn|Hs]; [|rewrite Hz in Hs; destruct Hs; discriminate].
        (* no parent: _curList is untouched *)
        rewrite (wf_root _ _ (Good_wf _ _ Hg') x) in Hz; [discriminate|].
        destruct (Hfp x) as [Hq _]. congruence.
      + now destruct (Hfo z Hzx) as (<-&_).
  Qed.
End Sweeps.
