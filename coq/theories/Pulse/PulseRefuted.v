(* C20 -- what does NOT hold when a GetPulseTime() callback itself performs operations (finding F16):
   a node that invalidates itself from inside its own GetPulseTime() ends up with an invalid time on the
   unscheduled list, i.e. off every needs-recalc path; later InvalidatePulseTime() calls are no-ops, it is
   never asked again and never fires, although it would ask for time 5.  The same history is replayed on the
   C++ code by corpus/C20.txt (first line). *)
From Coq Require Import List Arith NArith Bool.
From Muscle Require Import Pulse.PulseModel Pulse.PulseInv Pulse.PulseSweep.
Import ListNotations.

Definition rr_gt : nmap -> nat -> nat -> N -> N -> N * list cop :=
  fun _ x k _ _ => match x, k with
                 | 1, 0 => (NEVER, [CInval 1 true])      (* first call: "never", and invalidates itself *)
                 | 1, _ => (5%N, [])                      (* every later call would ask for time 5 *)
                 | _, _ => (NEVER, [])
                 end.
Definition rr_pl : nmap -> nat -> nat -> N -> N -> list cop := fun _ _ _ _ _ => [].
Definition rr_ops : list top :=
  [TNew 0; TNew 1; TOp (CAttach 0 1); TCycle 0 0%N; TOp (CInval 1 true); TCycle 0 10%N; TCycle 0 10%N].

Definition is_get_of (x : nat) (e : event) : bool := match e with EGet y _ _ _ => Nat.eqb y x | _ => false end.
Definition is_pulse_of (x : nat) (e : event) : bool := match e with EPulse y _ _ _ => Nat.eqb y x | _ => false end.

Lemma reentrant_recalc_refuted :
  exists s, run rr_gt rr_pl 50 init_state rr_ops = Some s /\
    parent (nd s 1) = Some 0 /\ valid (nd s 1) = false /\ cur (nd s 1) = LUnsched /\   (* attached, invalid, not on needs-recalc *)
    length (filter (is_get_of 1) (evs s)) = 1 /\                                         (* asked once, never again *)
    filter (is_pulse_of 1) (evs s) = [] /\                                               (* never fires *)
    ~ K2 nobody (nd s).
Proof.
  vm_compute. eexists. split; [reflexivity|]. repeat split.
  intro H. specialize (H 1 (fun F => F) eq_refl). destruct H as [H|H]; discriminate.
Qed.
