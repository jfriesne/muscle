(* C20 -- fuel adequacy: with fuel >= 2*(rank bound) + (bound on node ids in use) + 4 no function of the model
   runs out of fuel (user operations in any Good state; the two sweeps for callbacks that perform no operations);
   a rank can be chosen bounded by the bound on the node ids (small_rank). *)
From Coq Require Import List Arith NArith Bool Lia.
From Muscle Require Import Pulse.PulseModel Pulse.PulseInv Pulse.PulseForest Pulse.PulseResched Pulse.PulseOps
     Pulse.PulseSweep Pulse.PulseReach Pulse.PulseExact.
Import ListNotations.

Lemma edges_ext rk m m' : (forall y q, parent (m' y) = Some q -> parent (m y) = Some q) -> edges rk m -> edges rk m'.
Proof. intros He Hr c p Hp. apply Hr. now apply He. Qed.

Lemma resched_fuel rk : forall f m p c w,
  edges rk m -> parent (m c) = Some p -> rk p < f -> exists m', resched f m p c w = Some m'.
Proof.
  induction f as [|f IH]; intros m p c w He Hpar Hf; [lia|].
  rewrite resched_unfold.
  destruct (lst_eqb w (cur (m c)) && negb (lst_eqb (cur (m c)) LSched)); [eauto|]. cbv zeta.
  assert (Hpc : p <> c) by (intro; subst; specialize (He _ _ Hpar); lia).
  destruct w; eauto.
  set (m2 := unlink m p c LRecalc).
  destruct (parent (m2 p)) as [g|] eqn:Hg; [|eauto].
  assert (Hg' : parent (m p) = Some g) by (unfold m2 in Hg; now rewrite unlink_parent in Hg).
  destruct (IH m2 g p LRecalc) as (m3 & ->); eauto.
  - apply (edges_ext rk m); [|assumption]. intros y q. unfold m2. now rewrite unlink_parent.
  - specialize (He _ _ Hg'). lia.
Qed.

Lemma resched_up_fuel rk f m x :
  edges rk m -> (forall y, rk y < f) -> exists m', resched_up f m x = Some m'.
Proof.
  intros He Hf. unfold resched_up. destruct (parent (m x)) as [p|] eqn:Hp; [|eauto].
  eapply resched_fuel; eauto.
Qed.

Lemma is_anc_fuel rk f m a x : edges rk m -> rk x < f -> exists b, is_anc f m a x = Some b.
Proof. intros He Hf. destruct (is_anc_spec m rk He f a x Hf) as (b & Hb & _). eauto. Qed.

Lemma invalidate_fuel rk f m x cl :
  edges rk m -> (forall y, rk y < f) -> exists m', invalidate f m x cl = Some m'.
Proof.
  intros He Hf. unfold invalidate.
  set (m1 := if cl then upd m x (set_sched (m x) NEVER) else m).
  assert (Hp1 : forall y, parent (m1 y) = parent (m y)).
  { intro y. unfold m1. destruct cl; [|reflexivity].
    now apply upd_proj. }
  destruct (valid (m1 x)); [|eauto].
  apply (resched_up_fuel rk); [|assumption].
  apply (edges_ext rk m); [|assumption]. intros y q.
  destruct (upd_cases m1 x (set_valid (m1 x) false) y) as [[-> ->]|[_ ->]]; simpl; now rewrite Hp1.
Qed.

Lemma remove_child_fuel rk f m p c :
  edges rk m -> (forall y, rk y < f) -> exists m', remove_child f m p c = Some m'.
Proof.
  intros He Hf. unfold remove_child. destruct (parent (m c)) as [q|] eqn:Hq; simpl; [|eauto].
  destruct (Nat.eqb_spec q p) as [->|Hne]; [|eauto].
  destruct (resched_fuel rk f m p c LNone He Hq (Hf p)) as (m1 & Hr). rewrite Hr.
  destruct (opt_nat_eqb (hd_error (ls (m p))) c); [|eauto].
  apply (resched_up_fuel rk); [|assumption].
  assert (Hns : forall x, parent (m x) <> Some x) by (intros x Hx; specialize (He _ _ Hx); lia).
  pose proof (resched_scalars f m p c LNone m1 Hq Hns Hr) as Hsc.
  intros y g Hy. apply He.
  destruct (upd_cases m1 c (set_valid (set_parent (m1 c) None) false) y) as [[-> Hu]|[_ Hu]]; rewrite Hu in Hy.
  - discriminate.
  - destruct (Hsc y) as (Hpy & _). rewrite <- Hpy. exact Hy.
Qed.

Lemma ids_len N (l : list nat) : NoDup l -> (forall y, In y l -> y < N) -> length l <= N.
Proof.
  intros Hnd Hlt. rewrite <- (seq_length N 0). apply NoDup_incl_length; [assumption|].
  intros y Hy. apply in_seq. specialize (Hlt y Hy). lia.
Qed.

Definition kids_lt (N : nat) (m : nmap) : Prop := forall y p, parent (m y) = Some p -> y < N.

Lemma kids_lt_of_alive G N m : Good G m -> (forall y, alive (m y) = true -> y < N) -> kids_lt N m.
Proof.
  intros Hg Ha y p Hp. apply Ha. destruct (alive (m y)) eqn:Hal; [reflexivity|].
  destruct (c_dead _ (Good_core _ _ Hg) y Hal) as [Hn _]. congruence.
Qed.

Lemma kids_len N m x l : WF m -> kids_lt N m -> length (get_list (m x) l) <= N.
Proof.
  intros Hwf Hk. apply ids_len; [apply (wf_nodup _ _ Hwf)|].
  intros y Hin. destruct (wf_in _ _ Hwf x y l Hin) as [Hp _]. eapply Hk; eauto.
Qed.

Lemma filter_seq_le (P : nat -> bool) N : length (filter P (seq 0 N)) <= N.
Proof.
  rewrite <- (seq_length N 0) at 2. generalize (seq 0 N).
  induction l as [|a t IH]; simpl; [lia|]. destruct (P a); simpl; lia.
Qed.

Lemma filter_count_lt (P P' : nat -> bool) l c :
  (forall y, P' y = true -> P y = true) -> In c l -> P c = true -> P' c = false ->
  length (filter P' l) < length (filter P l).
Proof.
  intros Himp. induction l as [|a t IH]; intros Hin Hc Hc'; [destruct Hin|]. simpl.
  assert (Hle : length (filter P' t) <= length (filter P t)).
  { clear -Himp. induction t as [|b r IHr]; simpl; [lia|].
    destruct (P' b) eqn:E; [rewrite (Himp b E); simpl; lia|]. destruct (P b); simpl; lia. }
  destruct Hin as [->|Hin].
  - rewrite Hc, Hc'. simpl. lia.
  - specialize (IH Hin Hc Hc'). destruct (P' a) eqn:E; [rewrite (Himp a E); simpl; lia|].
    destruct (P a); simpl; lia.
Qed.

(* the measure of ClearPulseChildren's loops: each round detaches one child *)
Definition kidcnt (N : nat) (m : nmap) (x : nat) : nat :=
  length (filter (fun y => opt_nat_eqb (parent (m y)) x) (seq 0 N)).

(* one round per child of x, and RemovePulseChild needs fuel above the rank bound B *)
Lemma clear_list_fuel G rk B N : forall f m x l,
  Good G m -> edges rk m -> (forall y, rk y <= B) -> kids_lt N m -> kidcnt N m x + B + 2 <= f ->
  exists m', clear_list f m x l = Some m'.
Proof.
  induction f as [|f IH]; intros m x l Hg He Hb Hk Hf; [lia|]. simpl.
  destruct (get_list (m x) l) as [|c t] eqn:Hl; [eauto|].
  destruct (remove_child_fuel rk f m x c He) as (m1 & Hr); [intro y; specialize (Hb y); lia|]. rewrite Hr.
  assert (Hpar : parent (m c) = Some x).
  { apply (wf_in _ _ (Good_wf _ _ Hg) x c l). rewrite Hl. now left. }
  destruct (remove_child_spec G f m x c m1 Hg Hpar Hr) as (Hg1 & Hp1 & Hpo & _).
  assert (Hsub : forall y q, parent (m1 y) = Some q -> parent (m y) = Some q).
  { intros y q Hy. destruct (Nat.eq_dec y c) as [->|Hyc]; [congruence|]. now rewrite <- Hpo. }
  apply IH; auto; [eapply edges_ext; eauto|intros y q Hy; eapply Hk; eauto|].
  assert (kidcnt N m1 x < kidcnt N m x); [|lia].
  apply filter_count_lt with (c := c).
  - intros y Hy. destruct (parent (m1 y)) as [q|] eqn:Hq; [|discriminate]. now rewrite (Hsub y q Hq).
  - apply in_seq. pose proof (Hk c x Hpar). lia.
  - rewrite Hpar. apply Nat.eqb_refl.
  - now rewrite Hp1.
Qed.

Lemma clear_children_fuel G rk B N f m x :
  Good G m -> edges rk m -> (forall y, rk y <= B) -> (forall y, alive (m y) = true -> y < N) ->
  N + B + 2 <= f -> exists m', clear_children f m x = Some m'.
Proof.
  intros Hg He Hb Ha Hf. unfold clear_children.
  assert (Hstep : forall m0 l, Good G m0 -> edges rk m0 -> (forall y, alive (m0 y) = true -> y < N) ->
            exists m1, clear_list f m0 x l = Some m1 /\ Good G m1 /\ edges rk m1 /\ (forall y, alive (m1 y) = true -> y < N)).
  { intros m0 l Hg0 He0 Ha0.
    destruct (clear_list_fuel G rk B N f m0 x l Hg0 He0 Hb (kids_lt_of_alive G N m0 Hg0 Ha0)) as (m1 & H1);
      [pose proof (filter_seq_le (fun y => opt_nat_eqb (parent (m0 y)) x) N); unfold kidcnt; lia|].
    destruct (clear_list_spec G f m0 x l m1 Hg0 H1) as (Hg1 & _ & Hp1 & Ha1 & _).
    exists m1. split; [assumption|]. split; [assumption|]. split.
    - intros y q Hy. apply He0. destruct (Hp1 y) as [Hq|Hq]; congruence.
    - intros y Hy. apply Ha0. now rewrite <- Ha1. }
  destruct (Hstep m LSched Hg He Ha) as (m1 & -> & Hg1 & He1 & Ha1).
  destruct (Hstep m1 LUnsched Hg1 He1 Ha1) as (m2 & -> & Hg2 & He2 & Ha2).
  destruct (Hstep m2 LRecalc Hg2 He2 Ha2) as (m3 & -> & _). eauto.
Qed.

Lemma detach_fuel rk f m c :
  edges rk m -> (forall y, rk y < f) ->
  exists m1, match parent (m c) with Some q => remove_child f m q c | None => Some m end = Some m1.
Proof. intros He Hf. destruct (parent (m c)); [now apply (remove_child_fuel rk)|eauto]. Qed.

Lemma put_child_fuel G rk B f m p c :
  Good G m -> edges rk m -> (forall y, rk y <= B) -> B + 1 <= f -> p <> c -> ~ desc m c p ->
  exists m', put_child f m p c = Some m'.
Proof.
  intros Hg He Hb Hf Hpc Hnd. unfold put_child.
  assert (Hlt : forall y, rk y < f) by (intro y; specialize (Hb y); lia).
  destruct (detach_fuel rk f m c He Hlt) as (m1 & Hd). rewrite Hd.
  destruct (detach_spec G f m c m1 Hg Hd) as (_ & Hroot & Hsub & _).
  assert (He1 : edges rk m1) by (eapply edges_ext; eauto).
  assert (Hnd1 : ~ desc m1 c p) by (intro Hd'; apply Hnd; eapply desc_sub; eauto).
  destruct (rank_attach m1 (adopt m1 p c) p c rk B He1 Hb Hroot Hnd1) as (rk' & He' & _ & Hrp).
  - apply adopt_parent_c.
  - intros y Hy. now apply adopt_parent_o.
  - fold (adopt m1 p c). apply (resched_fuel rk'); auto using adopt_parent_c. rewrite Hrp. apply Hlt.
Qed.

Lemma apply_cop_fuel G rk B N f m o :
  Good G m -> edges rk m -> (forall y, rk y <= B) -> (forall y, alive (m y) = true -> y < N) ->
  N + B + 2 <= f -> exists m', apply_cop f m o = Some m'.
Proof.
  intros Hg He Hb Ha Hf.
  assert (Hlt : forall y, rk y < f) by (intro y; specialize (Hb y); lia).
  destruct o as [x cl|p c|p c|x|x]; simpl.
  - destruct (alive (m x)); [|eauto]. now apply (invalidate_fuel rk).
  - destruct (alive (m p) && alive (m c)); simpl; [|eauto].
    destruct (Nat.eqb_spec p c) as [Heq|Hne]; simpl; [eauto|].
    destruct (is_anc_fuel rk f m c p He (Hlt p)) as (b & Hb'). rewrite Hb'. destruct b; [eauto|].
    apply (put_child_fuel G rk B); auto; [lia|]. now apply is_anc_false_not_desc with (f := f).
  - destruct (alive (m p) && alive (m c)); [|eauto]. now apply (remove_child_fuel rk).
  - destruct (alive (m x)); [|eauto]. apply (clear_children_fuel G rk B N); auto.
  - destruct (alive (m x)); [|eauto]. unfold destroy.
    destruct (detach_fuel rk f m x He Hlt) as (m1 & Hd). rewrite Hd.
    destruct (detach_spec G f m x m1 Hg Hd) as (Hg1 & _ & Hsub & Hal & _).
    assert (He1 : edges rk m1) by (eapply edges_ext; eauto).
    assert (Ha1 : forall y, alive (m1 y) = true -> y < N) by (intros y Hy; apply Ha; now rewrite <- Hal).
    destruct (clear_children_fuel G rk B N f m1 x Hg1 He1 Hb Ha1 Hf) as (m2 & ->). eauto.
Qed.

Lemma loop_recalc_total (I : state -> Prop) call x :
  (forall s c t mn, I s -> lr (nd s x) = c :: t ->
     exists s1 mn1, call s c mn = Some (s1, mn1) /\ I s1 /\ length (lr (nd s1 x)) < length (lr (nd s x))) ->
  forall k s mn, I s -> length (lr (nd s x)) < k -> exists r, loop_recalc call k x s mn = Some r.
Proof.
  intros Hcall. induction k as [|k IH]; intros s mn Hi Hk; [lia|]. simpl.
  destruct (lr (nd s x)) as [|c t] eqn:Hl; [eauto|].
  destruct (Hcall s c t mn Hi Hl) as (s1 & mn1 & -> & Hi1 & Hlen). apply IH; [assumption|].
  rewrite Hl in Hlen. simpl in *. lia.
Qed.

Lemma loop_sched_total (I : state -> Prop) (mu : state -> nat) call x now :
  (forall s c t, I s -> ls (nd s x) = c :: t -> (agg (nd s c) <= now)%N ->
     exists s1, call s c = Some s1 /\ I s1 /\ mu s1 < mu s) ->
  forall k s, I s -> mu s < k -> exists r, loop_sched call k x now s = Some r.
Proof.
  intros Hcall. induction k as [|k IH]; intros s Hi Hk; [lia|]. simpl.
  destruct (ls (nd s x)) as [|c t] eqn:Hl; [eauto|].
  destruct (N.leb_spec (agg (nd s c)) now) as [Hle|Hgt]; [|eauto].
  destruct (Hcall s c t Hi Hl Hle) as (s1 & -> & Hi1 & Hlen). apply IH; [assumption|lia].
Qed.

(* the measure of that loop: whatever its Pulse() callbacks do, a frame puts nobody on a scheduled list (op_mono) and
   takes its own node off *)
Definition is_sched (m : nmap) (y : nat) : bool := lst_eqb (cur (m y)) LSched.
Definition cnt (N : nat) (m : nmap) : nat := length (filter (is_sched m) (seq 0 N)).

Lemma cnt_le N m : cnt N m <= N.
Proof. apply filter_seq_le. Qed.

Lemma pulse_child_counts pl now N f G s x c t s1 :
  Good G (nd s) -> kids_lt N (nd s) -> ls (nd s x) = c :: t -> pulse_aux pl f now s c = Some s1 ->
  cnt N (nd s1) < cnt N (nd s).
Proof.
  intros Hg Hk Hl H.
  destruct (wf_head _ _ x LSched c _ (Good_wf _ _ Hg) Hl) as [Hpc Hcc].
  pose proof (pulse_aux_mono pl now f G s c s1 Hg H) as Hm.
  unfold cnt. apply filter_count_lt with (c := c); unfold is_sched.
  - intros y Hy. apply lst_eqb_eq in Hy. apply lst_eqb_eq. destruct (proj1 (proj2 (Hm y))) as [E _]; [now left|congruence].
  - apply in_seq. pose proof (Hk c x Hpc). lia.
  - rewrite Hcc. reflexivity.
  - apply lst_eqb_neq. destruct (pulse_aux_rn pl now f G s c s1 Hg H) as [E|E]; rewrite E; discriminate.
Qed.

Section GetFuel.
  Variable gt : nmap -> nat -> nat -> N -> N -> N * list cop.
  Hypothesis gt_pure : forall m x k now prev, snd (gt m x k now prev) = [].

  Lemma get_self_total f s x now : exists s1, get_self gt f s x now = Some s1.
  Proof. unfold get_self. destruct (valid (nd s x)); [eauto|]. rewrite gt_pure. simpl. eauto. Qed.

  Lemma get_finish_total rk f s x mn :
    edges rk (nd s) -> (forall y, rk y < f) -> exists r, get_finish f s x mn = Some r.
  Proof.
    intros He Hf. unfold get_finish.
    set (m1 := upd (nd s) x (set_agg (nd s x) (N.min (sched (nd s x)) (first_sched_agg (nd s) x)))).
    assert (Hp1 : forall y, parent (m1 y) = parent (nd s y)).
    { intro y. now apply upd_proj. }
    destruct (parent (m1 x)) as [p|] eqn:Hp; [|eauto].
    destruct (lst_eqb (cur (m1 x)) LRecalc || negb (N.eqb (N.min (sched (nd s x)) (first_sched_agg (nd s) x)) (agg (nd s x)))); [|eauto].
    destruct (resched_fuel rk f m1 p x (if N.eqb (N.min (sched (nd s x)) (first_sched_agg (nd s) x)) NEVER then LUnsched else LSched)) as (m2 & ->); eauto.
    apply (edges_ext rk (nd s)); [|assumption]. intros y q. now rewrite Hp1.
  Qed.

  (* B - rk x: the levels that may still open below x; N: the rounds of a frame's loop; B: what its resched needs *)
  Lemma get_aux_fuel now rk B N : (forall y, rk y <= B) -> forall f G s x mn,
    Good G (nd s) -> rn (cur (nd s x)) -> edges rk (nd s) -> kids_lt N (nd s) ->
    (B - rk x) + N + B + 3 <= f -> exists r, get_aux gt f now s x mn = Some r.
  Proof.
    intros Hb. induction f as [|f IH]; intros G s x mn Hg Hrn He Hk Hf; [lia|]. simpl.
    destruct (get_self_total f s x now) as (s1 & Hs). rewrite Hs.
    destruct (get_self_good gt gt_pure G f s x now s1 Hg Hrn Hs) as (Hg1 & Hv1 & Hst1 & Ho1 & Ha1).
    set (I := fun si : state => Good G (nd si) /\ (forall y, parent (nd si y) = parent (nd s y))).
    assert (HI1 : I s1) by (split; [assumption|intro y; now destruct (Hst1 y) as (?&_)]).
    assert (Hloop : exists r, loop_recalc (get_aux gt f now) f x s1 mn = Some r).
    { apply (loop_recalc_total I (get_aux gt f now) x); [|exact HI1|].
      - intros si c t mi [Hgi Hpi] Hl.
        pose proof (Good_wf _ _ Hgi) as Hwfi.
        destruct (wf_head _ _ x LRecalc c _ Hwfi Hl) as [Hpc Hcc].
        assert (Hei : edges rk (nd si)) by (apply (edges_ext rk (nd s)); [intros y q; now rewrite Hpi|assumption]).
        assert (Hki : kids_lt N (nd si)) by (intros y q Hy; rewrite Hpi in Hy; eapply Hk; eauto).
        pose proof (Hei _ _ Hpc) as Hrk. pose proof (Hb c) as Hbc.
        destruct (IH G si c mi Hgi (or_introl Hcc) Hei Hki) as ([si1 mi1] & Hcall); [lia|].
        exists si1, mi1. split; [assumption|].
        destruct (get_aux_spec gt gt_pure now f G si c mi si1 mi1 Hgi (or_introl Hcc) Hcall)
          as (Hg' & Hp' & _ & _ & _ & _ & Hsu' & _ & Hmono').
        split; [split; [assumption|intro y; destruct (Hp' y) as [-> _]; apply Hpi]|].
        pose proof (Good_wf _ _ Hg') as Hwf'.
        assert (Hle : length (lr (nd si1 x)) <= length t).
        { apply NoDup_incl_length; [apply (wf_nodup _ _ Hwf' x LRecalc)|].
          intros y Hin. destruct (wf_in _ _ Hwf' x y LRecalc Hin) as [Hpy Hcy].
          assert (Hyc : y <> c).
          { intro; subst y. destruct Hsu' as [Hn|Hsu2]; [congruence|]. rewrite Hcy in Hsu2. destruct Hsu2; discriminate. }
          assert (Hpy0 : parent (nd si y) = Some x) by (destruct (Hp' y) as [<- _]; assumption).
          pose proof (wf_par _ _ Hwfi y x (fun F => F) Hpy0) as Hw. rewrite (Hmono' y Hcy) in Hw.
          specialize (Hw ltac:(discriminate)). simpl in Hw. rewrite Hl in Hw. destruct Hw; [congruence|assumption]. }
        rewrite Hl. simpl. lia.
      - pose proof (kids_len N (nd s1) x LRecalc (Good_wf _ _ Hg1)) as Hlen. simpl in Hlen.
        assert (kids_lt N (nd s1)) by (intros y q Hy; destruct (Hst1 y) as (Hq&_); rewrite Hq in Hy; eapply Hk; eauto).
        specialize (Hlen H). lia. }
    destruct Hloop as ([s2 mn2] & Hl). rewrite Hl.
    assert (HstepI : forall si c t mi si1 mi1, I si -> lr (nd si x) = c :: t ->
                       get_aux gt f now si c mi = Some (si1, mi1) -> I si1).
    { intros si c t mi si1 mi1 [Hgi Hpi] Hlr Hcall. pose proof (Good_wf _ _ Hgi) as Hwfi.
      destruct (wf_head _ _ x LRecalc c _ Hwfi Hlr) as [Hpc Hcc].
      destruct (get_aux_spec gt gt_pure now f G si c mi si1 mi1 Hgi (or_introl Hcc) Hcall) as (Hg' & Hp' & _).
      split; [assumption|intro y; destruct (Hp' y) as [-> _]; apply Hpi]. }
    assert (HI2 : I s2).
    { apply (proj1 (loop_recalc_ind (fun si _ => I si) (get_aux gt f now) x HstepI f s1 mn s2 mn2 HI1 Hl)). }
    destruct HI2 as [Hg2 Hp2].
    apply (get_finish_total rk).
    - apply (edges_ext rk (nd s)); [intros y q; now rewrite Hp2|assumption].
    - intro y. specialize (Hb y). lia.
  Qed.
End GetFuel.

Section PulseFuel.
  Variable pl : nmap -> nat -> nat -> N -> N -> list cop.
  Hypothesis pl_pure : forall m x k now st, pl m x k now st = [].

  Lemma pulse_self_total f s x now : exists s1, pulse_self pl f s x now = Some s1.
  Proof.
    unfold pulse_self. destruct (valid (nd s x) && N.leb (sched (nd s x)) now); [|eauto].
    rewrite pl_pure. simpl. eauto.
  Qed.

  Lemma pulse_aux_fuel now rk B N : (forall y, rk y <= B) -> forall f G s x,
    Good G (nd s) -> edges rk (nd s) -> kids_lt N (nd s) ->
    (B - rk x) + N + B + 3 <= f -> exists r, pulse_aux pl f now s x = Some r.
  Proof.
    intros Hb. induction f as [|f IH]; intros G s x Hg He Hk Hf; [lia|]. simpl.
    destruct (pulse_self_total f s x now) as (s1 & Hs). rewrite Hs.
    destruct (pulse_self_pure pl pl_pure f s x now s1 Hs) as (Ho & Hp1 & _).
    pose proof (pulse_self_good pl G f s x now s1 Hg Hs) as Hg1.
    set (G' := fun y => G y \/ y = x) in *.
    set (I := fun si : state => Good G' (nd si) /\ (forall y, parent (nd si y) = parent (nd s y))).
    assert (HI1 : I s1).
    { split; [assumption|]. intro y. destruct (Nat.eq_dec y x) as [->|Hy]; [assumption|now rewrite Ho]. }
    assert (Hfacts : forall si, I si -> edges rk (nd si) /\ kids_lt N (nd si)).
    { intros si [_ Hpi]. split.
      - apply (edges_ext rk (nd s)); [intros y q; now rewrite Hpi|assumption].
      - intros y q Hy. rewrite Hpi in Hy. eapply Hk; eauto. }
    assert (HstepI : forall si c si1, I si -> pulse_aux pl f now si c = Some si1 -> I si1).
    { intros si c si1 [Hgi Hpi] Hcall. split; [eapply pulse_aux_good; eauto|].
      destruct (pulse_aux_pframe pl pl_pure now f G' si c si1 Hgi Hcall) as (Hsc & _).
      intro y. destruct (Hsc y) as (-> & _). apply Hpi. }
    assert (Hloop : exists r, loop_sched (pulse_aux pl f now) f x now s1 = Some r).
    { apply (loop_sched_total I (fun si => cnt N (nd si)) (pulse_aux pl f now) x now); [|exact HI1|pose proof (cnt_le N (nd s1)); lia].
      intros si c t HIi Hl _. destruct HIi as [Hgi Hpi]. destruct (Hfacts si (conj Hgi Hpi)) as [Hei Hki].
      destruct (wf_head _ _ x LSched c _ (Good_wf _ _ Hgi) Hl) as [Hpc _].
      pose proof (Hei _ _ Hpc) as Hrk. pose proof (Hb c) as Hbc.
      destruct (IH G' si c Hgi Hei Hki) as (si1 & Hcall); [lia|].
      exists si1. split; [assumption|]. split; [exact (HstepI si c si1 (conj Hgi Hpi) Hcall)|].
      eapply pulse_child_counts; eauto. }
    destruct Hloop as (s2 & Hl). rewrite Hl.
    assert (HI2 : I s2).
    { apply (loop_sched_ind I (pulse_aux pl f now) HstepI f x now s1 s2 HI1 Hl). }
    destruct (Hfacts s2 HI2) as [He2 _].
    destruct (resched_up_fuel rk f (nd s2) x He2) as (m3 & ->); [intro y; specialize (Hb y); lia|]. eauto.
  Qed.
End PulseFuel.

Definition fits (f : nat) (m : nmap) : Prop :=
  exists rk B N, edges rk m /\ (forall y, rk y <= B) /\ (forall y, alive (m y) = true -> y < N) /\ 2 * B + N + 4 <= f.

Section StepFuel.
  Variable gt : nmap -> nat -> nat -> N -> N -> N * list cop.
  Variable pl : nmap -> nat -> nat -> N -> N -> list cop.
  Hypothesis gt_pure : forall m x k now prev, snd (gt m x k now prev) = [].
  Hypothesis pl_pure : forall m x k now st, pl m x k now st = [].

  Lemma top_get_total f s r now :
    Good nobody (nd s) -> fits f (nd s) ->
    exists s', top_get gt f s r now = Some s' /\ Good nobody (nd s') /\ forall y, parent (nd s' y) = parent (nd s y) /\ alive (nd s' y) = alive (nd s y).
  Proof.
    intros Hg (rk & B & N & He & Hb & Ha & Hf).
    assert (exists s', top_get gt f s r now = Some s') as (s' & H).
    { unfold top_get. destruct (is_root (nd s) r) eqn:Hr; [|eauto].
      destruct (get_aux_fuel gt gt_pure now rk B N Hb f nobody s r NEVER Hg (root_rn _ _ _ Hg Hr) He (kids_lt_of_alive nobody N (nd s) Hg Ha))
        as ([s1 mn] & ->); [pose proof (Hb r); lia|eauto]. }
    exists s'. split; [assumption|]. now apply (top_get_good gt gt_pure f s r now).
  Qed.

  Lemma top_pulse_total f s r now :
    Good nobody (nd s) -> fits f (nd s) -> exists s', top_pulse pl f s r now = Some s'.
  Proof.
    intros Hg (rk & B & N & He & Hb & Ha & Hf). unfold top_pulse.
    destruct (is_root (nd s) r); [|eauto]. destruct (N.leb (agg (nd s r)) now); [|eauto].
    apply (pulse_aux_fuel pl pl_pure now rk B N Hb f nobody s r Hg He (kids_lt_of_alive nobody N (nd s) Hg Ha)).
    pose proof (Hb r). lia.
  Qed.

  (* in any reachable (Good) state, with fuel >= 2*B + N + 4 -- B a bound on a rank that grows from
     parent to child (e.g. the depth of the forest), N a bound on the ids of the nodes in use -- no operation of
     the manager runs out of fuel *)
  Theorem step_total f s o :
    Good nobody (nd s) -> fits f (nd s) -> exists s', step gt pl f s o = Some s'.
  Proof.
    intros Hg Hfit. destruct o as [c|x|r now|r now|r now]; simpl.
    - destruct Hfit as (rk & B & N & He & Hb & Ha & Hf).
      destruct (apply_cop_fuel nobody rk B N f (nd s) c Hg He Hb Ha) as (m' & ->); [lia|eauto].
    - destruct (alive (nd s x)); eauto.
    - destruct (top_get_total f s r now Hg Hfit) as (s' & -> & _). eauto.
    - now apply top_pulse_total.
    - destruct (top_get_total f s r now Hg Hfit) as (s1 & -> & Hg1 & Hst). apply top_pulse_total; [assumption|].
      destruct Hfit as (rk & B & N & He & Hb & Ha & Hf). exists rk, B, N. split; [|split; [assumption|split; [|assumption]]].
      + intros y q Hy. apply He. destruct (Hst y) as [<- _]. exact Hy.
      + intros y Hy. apply Ha. destruct (Hst y) as [_ <-]. exact Hy.
  Qed.
End StepFuel.

(* when the attached nodes have ids below N a rank can be compressed to values <= N -- count the
   attached nodes that the given rank does not put above x *)
Lemma small_rank m N : acyc m -> kids_lt N m -> exists rk, edges rk m /\ forall x, rk x <= N.
Proof.
  intros (rk0 & B & He0 & _) Hk.
  set (below := fun x y => match parent (m y) with Some _ => Nat.leb (rk0 y) (rk0 x) | None => false end).
  exists (fun x => length (filter (below x) (seq 0 N))). split; [|intro x; apply filter_seq_le].
  intros c p Hp. pose proof (He0 _ _ Hp) as Hlt. apply filter_count_lt with (c := c); unfold below.
  - intros y Hy. destruct (parent (m y)); [|discriminate]. apply Nat.leb_le in Hy. apply Nat.leb_le. lia.
  - apply in_seq. pose proof (Hk c p Hp). lia.
  - rewrite Hp. apply Nat.leb_refl.
  - rewrite Hp. apply Nat.leb_gt. exact Hlt.
Qed.

(* so [fits] only needs a bound on the ids of the nodes in use *)
Lemma fits_of_ids f m G N :
  Good G m -> (forall y, alive (m y) = true -> y < N) -> 3 * N + 4 <= f -> fits f m.
Proof.
  intros Hg Ha Hf.
  destruct (small_rank m N (c_acyc _ (Good_core _ _ Hg)) (kids_lt_of_alive G N m Hg Ha)) as (rk & He & Hb).
  exists rk, N, N. repeat split; auto. lia.
Qed.
