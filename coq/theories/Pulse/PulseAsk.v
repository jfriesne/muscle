(* C20 -- the callback log of the recalculation sweep: GetPulseTime() is called exactly on the attached nodes
   whose time is not valid, once each, with (now, the previous value). *)
From Coq Require Import List Arith NArith Bool.
From Muscle Require Import Pulse.PulseModel Pulse.PulseInv Pulse.PulseForest Pulse.PulseResched Pulse.PulseOps
     Pulse.PulseSweep Pulse.PulseReach Pulse.PulseMin Pulse.PulseExact.
Import ListNotations.

(* between s and s' the log grew by GetPulseTime events only; a node's time became valid exactly when it was
   asked; each event carries (now, the node's previous time); no node was asked twice *)
Definition ask_rel (now : N) (s s' : state) : Prop :=
  exists d, evs s' = d ++ evs s /\
    (forall y, valid (nd s y) = true -> valid (nd s' y) = true /\ sched (nd s' y) = sched (nd s y)) /\
    (forall y, valid (nd s' y) = false -> sched (nd s' y) = sched (nd s y)) /\
    (forall e, In e d -> exists y k, e = EGet y k now (sched (nd s y)) /\ valid (nd s y) = false /\ valid (nd s' y) = true) /\
    NoDup (map ev_node d) /\
    (forall y, valid (nd s y) = false -> valid (nd s' y) = true -> exists k, In (EGet y k now (sched (nd s y))) d).

Lemma ask_rel_quiet now s s' :
  evs s' = evs s -> (forall y, valid (nd s' y) = valid (nd s y) /\ sched (nd s' y) = sched (nd s y)) -> ask_rel now s s'.
Proof.
  intros He Hsame. exists []. split; [assumption|]. split; [|split; [|split; [intros e []|split; [constructor|]]]].
  - intros y Hy. destruct (Hsame y) as [-> ->]. auto.
  - intros y _. now destruct (Hsame y).
  - intros y H1 H2. destruct (Hsame y) as [Hv _]. congruence.
Qed.

Lemma ask_rel_trans now s1 s2 s3 : ask_rel now s1 s2 -> ask_rel now s2 s3 -> ask_rel now s1 s3.
Proof.
  intros (d1 & He1 & Hv1 & Hi1 & Hd1 & Hn1 & Hc1) (d2 & He2 & Hv2 & Hi2 & Hd2 & Hn2 & Hc2).
  assert (Hback : forall y, valid (nd s2 y) = false -> valid (nd s1 y) = false).
  { intros y H2. destruct (valid (nd s1 y)) eqn:E; [|reflexivity]. destruct (Hv1 y E). congruence. }
  exists (d2 ++ d1). split; [rewrite He2, He1; now rewrite app_assoc|]. split; [|split; [|split; [|split]]].
  - intros y Hy. destruct (Hv1 y Hy) as [Hy2 Hs2]. destruct (Hv2 y Hy2) as [Hy3 Hs3]. split; congruence.
  - intros y Hy3. assert (Hy2 : valid (nd s2 y) = false).
    { destruct (valid (nd s2 y)) eqn:E; [|reflexivity]. destruct (Hv2 y E). congruence. }
    rewrite (Hi2 y Hy3). now apply Hi1.
  - intros e Hin. apply in_app_iff in Hin. destruct Hin as [Hin|Hin].
    + destruct (Hd2 e Hin) as (y & k & -> & Hvy & Hvy'). exists y, k. rewrite (Hi1 y Hvy). auto.
    + destruct (Hd1 e Hin) as (y & k & -> & Hvy & Hvy'). exists y, k. split; [reflexivity|]. split; [assumption|].
      now destruct (Hv2 y Hvy').
  - rewrite map_app. apply nodup_app_intro; auto.
    intros n Hn2' Hn1'. apply in_map_iff in Hn2'. apply in_map_iff in Hn1'.
    destruct Hn2' as (e2 & <- & Hin2). destruct Hn1' as (e1 & Heq & Hin1).
    destruct (Hd2 e2 Hin2) as (y2 & k2 & -> & Hvy2 & _).
    destruct (Hd1 e1 Hin1) as (y1 & k1 & -> & _ & Hvy1). simpl in Heq. subst y1. congruence.
  - intros y Hy1 Hy3. destruct (valid (nd s2 y)) eqn:Hy2.
    + destruct (Hc1 y Hy1 Hy2) as (k & Hin). exists k. apply in_app_iff. now right.
    + destruct (Hc2 y Hy2 Hy3) as (k & Hin). exists k. apply in_app_iff. left. now rewrite <- (Hi1 y Hy2).
Qed.

Section Ask.
  Variable gt : nmap -> nat -> nat -> N -> N -> N * list cop.
  Hypothesis gt_pure : forall m x k now prev, snd (gt m x k now prev) = [].

  Lemma get_self_ask f s x now s1 : get_self gt f s x now = Some s1 -> ask_rel now s s1.
  Proof.
    intro H. unfold get_self in H. destruct (valid (nd s x)) eqn:Hv.
    - inversion H; subst. apply ask_rel_quiet; auto.
    - rewrite gt_pure in H. simpl in H. inversion H; subst s1. clear H.
      exists [EGet x (ngt (nd s x)) now (sched (nd s x))]. simpl. split; [reflexivity|].
      split; [|split; [|split; [|split]]].
      + intros y Hy. assert (y <> x) by congruence. now rewrite !upd_other by assumption.
      + intros y Hy. destruct (Nat.eq_dec y x) as [->|Hyx]; [rewrite !upd_same in Hy; discriminate|].
        now rewrite !upd_other by assumption.
      + intros e [<-|[]]. exists x, (ngt (nd s x)). split; [reflexivity|]. split; [assumption|].
        now rewrite !upd_same.
      + constructor; [intros []|constructor].
      + intros y H1 H2. destruct (Nat.eq_dec y x) as [->|Hyx]; [exists (ngt (nd s x)); now left|].
        rewrite !upd_other in H2 by assumption. congruence.
  Qed.

  Lemma get_aux_ask now : forall f G s x mn s' mn',
    Good G (nd s) -> rn (cur (nd s x)) -> get_aux gt f now s x mn = Some (s', mn') -> ask_rel now s s'.
  Proof.
    induction f as [|f IH]; intros G s x mn s' mn' Hg Hrn H; [discriminate|]. simpl in H.
    destruct (get_self gt f s x now) as [s1|] eqn:Hself; [|discriminate].
    destruct (loop_recalc (get_aux gt f now) f x s1 mn) as [[s2 mn2]|] eqn:Hloop; [|discriminate].
    destruct (get_self_good gt gt_pure G f s x now s1 Hg Hrn Hself) as (Hg1 & Hv1 & Hst1 & Ho1 & Ha1).
    pose proof (get_self_ask f s x now s1 Hself) as He1.
    assert (H2 : (Good G (nd s2) /\ ask_rel now s1 s2) /\ lr (nd s2 x) = []).
    { apply (loop_recalc_ind (fun si _ => Good G (nd si) /\ ask_rel now s1 si) (get_aux gt f now) x) with (k := f) (s := s1) (mn := mn) (mn' := mn2); [| |exact Hloop].
      - intros si c t mi si1 mi1 [Hgi Hei] Hl Hcall.
        destruct (wf_head _ _ x LRecalc c _ (Good_wf _ _ Hgi) Hl) as [_ Hcc].
        split.
        + now destruct (get_aux_spec gt gt_pure now f G si c mi si1 mi1 Hgi (or_introl Hcc) Hcall) as (? & _).
        + eapply ask_rel_trans; [exact Hei|]. eapply IH; eauto. now left.
      - split; [assumption|]. apply ask_rel_quiet; auto. }
    destruct H2 as [[Hg2 He2] Hlr2].
    eapply ask_rel_trans; [exact He1|]. eapply ask_rel_trans; [exact He2|].
    destruct (get_finish_scalars G f s2 x mn2 s' mn' Hg2 H) as [Hev Hsame]. now apply ask_rel_quiet.
  Qed.

  (* the recalculation sweep on a root r calls GetPulseTime() on exactly the nodes attached below r
     whose time is not valid -- once each, with (now, previous value) -- and on nobody else *)
  Theorem recalc_asks f s r now s' :
    Good nobody (nd s) -> is_root (nd s) r = true -> top_get gt f s r now = Some s' ->
    exists mn d, evs s' = EMin r mn :: d ++ evs s /\ NoDup (map ev_node d) /\
      (forall e, In e d -> exists y k, e = EGet y k now (sched (nd s y)) /\ desc (nd s) r y /\ valid (nd s y) = false) /\
      (forall y, desc (nd s) r y -> valid (nd s y) = false -> exists k, In (EGet y k now (sched (nd s y))) d).
  Proof.
    intros Hg Hr H.
    destruct (top_get_spec gt gt_pure f s r now s' Hg Hr H) as (s1 & mn & Ha & -> & Hrec & _ & Hpar & Hfr).
    destruct (get_aux_ask now f nobody s r NEVER s1 mn Hg (root_rn _ _ _ Hg Hr) Ha) as (d & He & Hm & Hi & Hd & Hn & Hc).
    exists mn, d. simpl. split; [now rewrite He|]. split; [assumption|]. split.
    - intros e Hin. destruct (Hd e Hin) as (y & k & -> & Hv0 & Hv1). exists y, k. split; [reflexivity|]. split; [|assumption].
      destruct (desc_dec (nd s) r y (c_acyc _ (Good_core _ _ Hg))) as [Hdy|Hnd]; [assumption|].
      destruct (Hfr y Hnd) as (_ & E & _). congruence.
    - intros y Hdy Hv0. apply Hc; [assumption|]. apply (proj1 (recalculated_min _ _ Hrec)).
      apply (desc_parent_ext (nd s)); [intro z; now destruct (Hpar z)|assumption].
  Qed.
End Ask.

Section Cycle.
  Variable gt : nmap -> nat -> nat -> N -> N -> N * list cop.
  Variable pl : nmap -> nat -> nat -> N -> N -> list cop.
  Hypothesis gt_pure : forall m x k now prev, snd (gt m x k now prev) = [].
  Hypothesis pl_pure : forall m x k now st, pl m x k now st = [].

  (* when a tree is "pulsed at time now" by the manager -- recalculation sweep, then pulse sweep, as
     ReflectServer does each time it wakes up -- in ANY reachable state: every attached node has been asked, the
     reported wake-up time is the minimum of the requested times, and Pulse() runs on exactly the attached nodes
     whose requested time is <= now, once each, with (now, requested time); each of them is invalid afterwards and
     on its parent's needs-recalc list, so the next cycle asks it again *)
  Theorem cycle_exact f s r now s' :
    (now < NEVER)%N -> Good nobody (nd s) -> is_root (nd s) r = true ->
    step gt pl f s (TCycle r now) = Some s' ->
    exists s1 mn,
      top_get gt f s r now = Some s1 /\ top_pulse pl f s1 r now = Some s' /\
      hd_error (evs s1) = Some (EMin r mn) /\
      (forall y, desc (nd s1) r y -> valid (nd s1 y) = true /\ (mn <= sched (nd s1 y))%N) /\
      (exists y, desc (nd s1) r y /\ sched (nd s1 y) = mn) /\
      Good nobody (nd s') /\
      exists d, evs s' = d ++ evs s1 /\ NoDup (map ev_node d) /\
        (forall e, In e d -> exists y k, e = EPulse y k now (sched (nd s1 y)) /\ desc (nd s1) r y /\ (sched (nd s1 y) <= now)%N) /\
        (forall y, desc (nd s1) r y -> (sched (nd s1 y) <= now)%N -> exists k, In (EPulse y k now (sched (nd s1 y))) d) /\
        (forall y, desc (nd s1) r y -> (sched (nd s1 y) <= now)%N ->
                   valid (nd s' y) = false /\ (parent (nd s' y) <> None -> cur (nd s' y) = LRecalc)).
  Proof.
    intros Hnow Hg Hr H. simpl in H.
    destruct (top_get gt f s r now) as [s1|] eqn:H1; [|discriminate].
    destruct (recalc_min gt gt_pure f s r now s1 Hg Hr H1) as (mn & Hev & Hmn & Hg1 & Hall & Hatt & Hpar).
    destruct (top_get_spec gt gt_pure f s r now s1 Hg Hr H1) as (s0 & mn0 & _ & -> & (_ & Hr1 & Hset & Hagg) & _).
    eexists _, mn. split; [reflexivity|]. split; [assumption|]. split; [assumption|]. split.
    { intros y Hd. destruct (Hall y Hd) as [[Hv _] Hle]. auto. }
    split; [assumption|]. apply (pulse_exact pl pl_pure f _ r now s' Hnow Hg1 Hr1 Hset Hagg H).
  Qed.
End Cycle.
