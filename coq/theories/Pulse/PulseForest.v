(* C20 -- the parent pointers form a forest: descendants, ranks, the ancestor test. *)
From Coq Require Import List Arith NArith Bool Lia.
From Muscle Require Import Pulse.PulseModel Pulse.PulseInv.
Import ListNotations.

Lemma desc_trans m a b c : desc m a b -> desc m b c -> desc m a c.
Proof. intros Hab Hbc. induction Hbc; [assumption|]. eapply desc_child; eauto. Qed.

Lemma desc_inv m a x : desc m a x -> x = a \/ exists p, parent (m x) = Some p /\ desc m a p.
Proof. destruct 1; [left; reflexivity|right; eauto]. Qed.

Lemma desc_sub m m' a x :
  (forall y q, parent (m' y) = Some q -> parent (m y) = Some q) -> desc m' a x -> desc m a x.
Proof. intros Hs H. induction H; [constructor|]. eapply desc_child; eauto. Qed.

Lemma desc_parent_ext m m' a x :
  (forall y, parent (m' y) = parent (m y)) -> desc m a x -> desc m' a x.
Proof. intro He. apply desc_sub. intros y q. now rewrite He. Qed.

Lemma desc_rank m rk a x :
  (forall c p, parent (m c) = Some p -> rk p < rk c) -> desc m a x -> rk a <= rk x.
Proof.
  intros Hrk H. induction H; [lia|]. specialize (Hrk _ _ H0). lia.
Qed.

Lemma acyc_no_cycle m x p : acyc m -> parent (m x) = Some p -> ~ desc m x p.
Proof.
  intros (rk & B & Hrk & _) Hp Hd. pose proof (desc_rank m rk x p Hrk Hd). specialize (Hrk _ _ Hp). lia.
Qed.

Lemma acyc_cut m m' :
  (forall y, parent (m' y) = parent (m y) \/ parent (m' y) = None) -> acyc m -> acyc m'.
Proof.
  intros He (rk & B & Hrk & Hb). exists rk, B. split; [|assumption].
  intros c p Hp. destruct (He c) as [H|H]; [|congruence].
  apply Hrk. congruence.
Qed.

Lemma acyc_ext m m' : (forall y, parent (m' y) = parent (m y)) -> acyc m -> acyc m'.
Proof. intro He. apply acyc_cut. intro y. left. apply He. Qed.

(* the ancestor test of the harness / of apply_cop *)
Lemma is_anc_spec m rk : (forall c p, parent (m c) = Some p -> rk p < rk c) ->
  forall f a x, rk x < f -> exists b, is_anc f m a x = Some b /\ (b = true <-> desc m a x).
Proof.
  intros Hrk f. induction f as [|f IH]; intros a x Hf; [lia|]. simpl.
  destruct (Nat.eqb_spec x a) as [->|Hne].
  - exists true. split; [reflexivity|]. split; [constructor|reflexivity].
  - destruct (parent (m x)) as [p|] eqn:Hp.
    + destruct (IH a p) as (b & Hb & Hbd); [specialize (Hrk _ _ Hp); lia|].
      exists b. split; [assumption|]. rewrite Hbd. split.
      * intro H. eapply desc_child; eauto.
      * intro H. apply desc_inv in H. destruct H as [?|(q & Hq & Hd)]; [congruence|]. congruence.
    + exists false. split; [reflexivity|]. split; [discriminate|].
      intro H. apply desc_inv in H. destruct H as [?|(q & Hq & _)]; congruence.
Qed.

Lemma is_anc_true_desc m : forall f a x, is_anc f m a x = Some true -> desc m a x.
Proof.
  induction f as [|f IH]; intros a x H; [discriminate|]. simpl in H.
  destruct (Nat.eqb_spec x a) as [Heq|Hne]; [subst; constructor|].
  destruct (parent (m x)) as [p|] eqn:Hp; [|discriminate]. eapply desc_child; eauto.
Qed.

Lemma is_anc_false_not_desc m : forall f a x, is_anc f m a x = Some false -> ~ desc m a x.
Proof.
  induction f as [|f IH]; intros a x H; [discriminate|]. simpl in H.
  destruct (Nat.eqb_spec x a) as [Heq|Hne]; [discriminate|].
  intro Hd. apply desc_inv in Hd. destruct Hd as [?|(q & Hq & Hd)]; [congruence|].
  rewrite Hq in H. now apply (IH a q).
Qed.

Lemma desc_dec m a y : acyc m -> desc m a y \/ ~ desc m a y.
Proof.
  intros (rk & B & Hrk & _). destruct (is_anc_spec m rk Hrk (S (rk y)) a y) as (b & _ & Hb); [lia|].
  destruct b; [left; now apply Hb|right; intro F; apply Hb in F; discriminate].
Qed.

Definition edges (rk : nat -> nat) (m : nmap) : Prop := forall c p, parent (m c) = Some p -> rk p < rk c.

(* hanging the root c below p: a rank of the new forest, unchanged outside c's subtree *)
Lemma rank_attach m m' p c rk B :
  edges rk m -> (forall x, rk x <= B) -> parent (m c) = None -> ~ desc m c p ->
  parent (m' c) = Some p -> (forall y, y <> c -> parent (m' y) = parent (m y)) ->
  exists rk', edges rk' m' /\ (forall x, rk' x <= B + B + 1) /\ rk' p = rk p.
Proof.
  intros Hrk Hbound Hroot Hnd Hpc Hoth.
  set (below := fun y => match is_anc (S (rk y)) m c y with Some true => true | _ => false end).
  assert (Hbelow : forall y, below y = true <-> desc m c y).
  { intro y. unfold below. destruct (is_anc_spec m rk Hrk (S (rk y)) c y) as (b & Hb & Hbd); [lia|].
    rewrite Hb. destruct b; [tauto|]. split; [discriminate|]. intro H. apply Hbd in H. discriminate. }
  assert (H2 : below p = false).
  { destruct (below p) eqn:Hb; [|reflexivity]. apply Hbelow in Hb. contradiction. }
  exists (fun y => if below y then rk y + rk p + 1 else rk y).
  split; [|split; [intro y; pose proof (Hbound y); pose proof (Hbound p); destruct (below y); lia|now rewrite H2]].
  intros y q Hq. destruct (Nat.eq_dec y c) as [->|Hy].
  - rewrite Hpc in Hq. inversion Hq; subst q.
    assert (H1 : below c = true) by (apply Hbelow; constructor).
    rewrite H1, H2. lia.
  - rewrite Hoth in Hq by assumption. pose proof (Hrk _ _ Hq) as Hlt.
    destruct (below y) eqn:Hby.
    + apply Hbelow in Hby. apply desc_inv in Hby. destruct Hby as [?|(q' & Hq' & Hd)]; [congruence|].
      assert (q' = q) by congruence. subst q'.
      assert (Hbq : below q = true) by now apply Hbelow. rewrite Hbq. lia.
    + destruct (below q) eqn:Hbq; [|lia].
      apply Hbelow in Hbq. assert (Hd : desc m c y) by (eapply desc_child; eauto).
      apply Hbelow in Hd. congruence.
Qed.

Lemma acyc_attach m m' p c :
  acyc m -> parent (m c) = None -> ~ desc m c p ->
  parent (m' c) = Some p -> (forall y, y <> c -> parent (m' y) = parent (m y)) ->
  acyc m'.
Proof.
  intros (rk & B & Hrk & Hb) Hroot Hnd Hpc Hoth.
  destruct (rank_attach m m' p c rk B Hrk Hb Hroot Hnd Hpc Hoth) as (rk' & He & Hb' & _). now exists rk', (B + B + 1).
Qed.

Lemma desc_comparable m a b y : desc m a y -> desc m b y -> desc m a b \/ desc m b a.
Proof.
  intros Ha. revert b. induction Ha as [|c p Ha IH Hp]; intros b Hb; [right; assumption|].
  apply desc_inv in Hb. destruct Hb as [->|(q & Hq & Hb)].
  - left. eapply desc_child; eauto.
  - assert (q = p) by congruence. subst q. now apply IH.
Qed.

Lemma siblings_disjoint m x c1 c2 y :
  acyc m -> parent (m c1) = Some x -> parent (m c2) = Some x -> c1 <> c2 ->
  desc m c1 y -> desc m c2 y -> False.
Proof.
  intros Hac H1 H2 Hne Hd1 Hd2. destruct (desc_comparable m c1 c2 y Hd1 Hd2) as [Hd|Hd].
  - apply desc_inv in Hd. destruct Hd as [?|(q & Hq & Hd)]; [congruence|].
    assert (q = x) by congruence. subst q. now apply (acyc_no_cycle m c1 x Hac H1).
  - apply desc_inv in Hd. destruct Hd as [?|(q & Hq & Hd)]; [congruence|].
    assert (q = x) by congruence. subst q. now apply (acyc_no_cycle m c2 x Hac H2).
Qed.

Lemma sibling_not_above m x c1 c2 y :
  acyc m -> parent (m c1) = Some x -> parent (m c2) = Some x -> c1 <> c2 ->
  desc m c1 y -> desc m y c2 -> False.
Proof.
  intros Hac H1 H2 Hne Hd1 Hd2. pose proof (desc_trans m c1 y c2 Hd1 Hd2) as Hd.
  apply desc_inv in Hd. destruct Hd as [?|(q & Hq & Hd)]; [congruence|].
  assert (q = x) by congruence. subst q. now apply (acyc_no_cycle m c1 x Hac H1).
Qed.

Lemma desc_via_child m x y : desc m x y -> y <> x -> exists c, parent (m c) = Some x /\ desc m c y.
Proof.
  induction 1 as [|c p Hd IH Hp]; intro Hne; [congruence|].
  destruct (Nat.eq_dec p x) as [->|Hpx].
  - exists c. split; [assumption|constructor].
  - destruct (IH Hpx) as (c' & Hc' & Hd'). exists c'. split; [assumption|]. eapply desc_child; eauto.
Qed.

