(* C20 -- the user-level operations (invalidate, attach, detach, clear, destroy) keep the invariants,
   from any state, in the middle of a pulse sweep as well (parameter G = nodes whose PulseAux runs),
   and what each of them leaves alone. *)
From Coq Require Import List Arith NArith Bool.
From Muscle Require Import Pulse.PulseModel Pulse.PulseInv Pulse.PulseForest Pulse.PulseResched.
Import ListNotations.

Record Good (G : nat -> Prop) (m : nmap) : Prop := { g_inv : Inv0 m; g_k2 : K2 G m }.

Lemma Good_core G m : Good G m -> Core m.
Proof. intro H. apply (i_core _ (g_inv _ _ H)). Qed.

Lemma Good_wf G m : Good G m -> WF m.
Proof. intro H. apply (c_wf _ (Good_core G m H)). Qed.

(* What an operation leaves alone.  op_mono: nothing gets better -- no time becomes valid (a valid one keeps its
   value), nobody enters a scheduled or unscheduled list or changes parent while on one, no object comes to life.
   keeps: a node the operation does not withdraw ([withdraws], below) keeps validity, parent and life.  Both hold
   of ReschedulePulseChild towards the needs-recalc list or none and of an assignment to one node, which is all an
   operation is made of. *)
Definition op_mono (m m' : nmap) : Prop :=
  forall z,
    (valid (m' z) = true -> valid (m z) = true /\ sched (m' z) = sched (m z)) /\
    (su (cur (m' z)) -> cur (m z) = cur (m' z) /\ parent (m' z) = parent (m z)) /\
    (alive (m' z) = true -> alive (m z) = true).

Definition keeps (m m' : nmap) (z : nat) : Prop :=
  valid (m' z) = valid (m z) /\ parent (m' z) = parent (m z) /\ alive (m' z) = alive (m z).

Definition frame (K : nat -> Prop) (m m' : nmap) : Prop := op_mono m m' /\ forall z, K z -> keeps m m' z.

Definition all : nat -> Prop := fun _ => True.

Lemma op_mono_refl m : op_mono m m.
Proof. intro z. auto. Qed.

Lemma op_mono_trans m1 m2 m3 : op_mono m1 m2 -> op_mono m2 m3 -> op_mono m1 m3.
Proof.
  intros H1 H2 z. destruct (H1 z) as (V1 & C1 & A1). destruct (H2 z) as (V2 & C2 & A2). split; [|split; [|auto]].
  - intro H. destruct (V2 H) as [Hv Hs]. destruct (V1 Hv). split; congruence.
  - intro H. destruct (C2 H) as [Hc Hp]. rewrite <- Hc in H. destruct (C1 H). split; congruence.
Qed.

Lemma op_mono_rn m m' z : op_mono m m' -> rn (cur (m z)) -> rn (cur (m' z)).
Proof.
  intros Hm Hr. destruct (rn_su_dec (cur (m' z))) as [H|H]; [assumption|].
  destruct (proj1 (proj2 (Hm z)) H) as [He _]. rewrite <- He in H. exfalso. eapply rn_not_su; eauto.
Qed.

Lemma frame_refl K m : frame K m m.
Proof. split; [apply op_mono_refl|]. intros z _. repeat split. Qed.

Lemma frame_trans (K K1 K2 : nat -> Prop) m1 m2 m3 :
  frame K1 m1 m2 -> frame K2 m2 m3 -> (forall z, K z -> K1 z) -> (forall z, K z -> keeps m1 m2 z -> K2 z) ->
  frame K m1 m3.
Proof.
  intros [M1 F1] [M2 F2] H1 H2. split; [eapply op_mono_trans; eauto|].
  intros z Hz. pose proof (F1 z (H1 z Hz)) as Ka. destruct (F2 z (H2 z Hz Ka)) as (B1&B2&B3).
  destruct Ka as (A1&A2&A3). repeat split; congruence.
Qed.

Lemma frame_at m m' x :
  (forall z, z <> x -> m' z = m z) ->
  (valid (m' x) = true -> valid (m x) = true /\ sched (m' x) = sched (m x)) ->
  (su (cur (m' x)) -> cur (m x) = cur (m' x) /\ parent (m' x) = parent (m x)) ->
  (alive (m' x) = true -> alive (m x) = true) ->
  frame (fun z => z <> x) m m'.
Proof.
  intros Ho Hv Hc Ha. split.
  - intro z. destruct (Nat.eq_dec z x) as [->|Hz]; [auto|]. rewrite (Ho z Hz). auto.
  - intros z Hz. unfold keeps. rewrite (Ho z Hz). auto.
Qed.

Lemma frame_scalars m m' : same_scalars m m' -> cur_rel m m' -> frame all m m'.
Proof.
  intros Hsc Hcr. split; intro z; destruct (Hsc z) as (Hp&_&Hs&Hv&Ha&_); [|repeat split; assumption].
  rewrite Hv, Hs, Ha, Hp. split; [auto|split; [|auto]].
  intro Hsu. destruct (Hcr z) as [He|Hr]; [auto|]. exfalso. eapply rn_not_su; eauto.
Qed.

Lemma resched_up_scalars f m x m' :
  (forall y, parent (m y) <> Some y) -> resched_up f m x = Some m' -> same_scalars m m'.
Proof.
  intros Hns H. unfold resched_up in H. destruct (parent (m x)) as [p|] eqn:Hp.
  - eapply resched_scalars; eauto.
  - inversion H; subst. apply same_scalars_refl.
Qed.

Lemma resched_frame f m p c w m' :
  (forall x, parent (m x) <> Some x) -> parent (m c) = Some p -> rn w -> resched f m p c w = Some m' ->
  frame all m m'.
Proof.
  intros Hns Hpar Hw H. apply frame_scalars; [eapply resched_scalars|eapply resched_cur_rel]; eauto.
Qed.

Lemma resched_up_frame f m x m' :
  (forall y, parent (m y) <> Some y) -> resched_up f m x = Some m' -> frame all m m'.
Proof.
  intros Hns H. unfold resched_up in H. destruct (parent (m x)) as [p|] eqn:Hp.
  - eapply resched_frame; eauto. now left.
  - inversion H; subst. apply frame_refl.
Qed.

Lemma op_mono_su_lists m m' q l y :
  WF m -> WF m' -> op_mono m m' -> su l -> In y (get_list (m' q) l) -> In y (get_list (m q) l).
Proof.
  intros Hwf Hwf' Hm Hl Hin. destruct (wf_in _ _ Hwf' _ _ _ Hin) as [Hp Hc].
  destruct (proj1 (proj2 (Hm y))) as [Hc0 Hp0]; [now rewrite Hc|].
  pose proof (wf_par _ _ Hwf y q (fun F => F)) as Hw. rewrite Hc0, Hc in Hw.
  apply Hw; [congruence|destruct Hl; congruence].
Qed.

Definition same_struct (m m' : nmap) : Prop :=
  forall y, parent (m' y) = parent (m y) /\ cur (m' y) = cur (m y) /\ ls (m' y) = ls (m y) /\
            lu (m' y) = lu (m y) /\ lr (m' y) = lr (m y) /\ alive (m' y) = alive (m y).

Lemma same_struct_get_list m m' : same_struct m m' -> forall y l, get_list (m' y) l = get_list (m y) l.
Proof. intros H y l. destruct (H y) as (_&_&H1&H2&H3&_). destruct l; simpl; auto. Qed.

Lemma WFx_struct E m m' : same_struct m m' -> WFx E m -> WFx E m'.
Proof.
  intros Hs Hwf. pose proof (same_struct_get_list m m' Hs) as Hg.
  assert (Hp : forall y, parent (m' y) = parent (m y)) by (intro y; now destruct (Hs y) as (?&_)).
  assert (Hc : forall y, cur (m' y) = cur (m y)) by (intro y; now destruct (Hs y) as (_&?&_)).
  constructor.
  - intros p c l. rewrite Hg, Hp, Hc. apply (wf_in _ _ Hwf).
  - intros c p. rewrite Hg, Hp, Hc. apply (wf_par _ _ Hwf).
  - intros c. rewrite Hp, Hc. apply (wf_root _ _ Hwf).
  - intros p l. rewrite Hg. apply (wf_nodup _ _ Hwf).
  - intros c. rewrite Hp. apply (wf_noself _ _ Hwf).
  - intros e He. rewrite Hc. destruct (wf_exc _ _ Hwf e He) as [H1 H2]. split; [assumption|].
    intros q l. rewrite Hg. apply H2.
Qed.

Lemma K1_struct m m' : same_struct m m' -> K1 m -> K1 m'.
Proof. intros Hs Hk x. destruct (Hs x) as (_&Hc&_&_&Hl&_). rewrite Hc, Hl. apply Hk. Qed.

Lemma listed_struct m m' : same_struct m m' -> listed m -> listed m'.
Proof. intros Hs Hk c p. destruct (Hs c) as (Hp&Hc&_). rewrite Hp, Hc. apply Hk. Qed.

Lemma acyc_struct m m' : same_struct m m' -> acyc m -> acyc m'.
Proof. intros Hs. apply acyc_ext. intro y. now destruct (Hs y) as (?&_). Qed.

Lemma dead_inert_struct m m' : same_struct m m' -> dead_inert m -> dead_inert m'.
Proof.
  intros Hs Hd x Hx. destruct (Hs x) as (Hp&_&_&_&_&Ha). rewrite Ha in Hx. destruct (Hd x Hx) as [H1 H2].
  split; [congruence|]. intros y. destruct (Hs y) as (Hpy&_). rewrite Hpy. apply H2.
Qed.

Lemma K4_struct m m' : same_struct m m' -> (forall y, agg (m' y) = agg (m y)) -> K4 m -> K4 m'.
Proof. intros Hs Ha Hk x. destruct (Hs x) as (_&Hc&_). rewrite Hc, Ha. apply Hk. Qed.

Lemma K5_struct m m' : same_struct m m' -> (forall y, agg (m' y) = agg (m y)) -> K5 m -> K5 m'.
Proof.
  intros Hs Ha Hk. apply K5_same_agg_ls with (m := m); auto. intro q. now destruct (Hs q) as (_&_&?&_).
Qed.

Lemma Core_struct m m' :
  same_struct m m' -> (forall y, agg (m' y) = agg (m y)) -> K6 m' -> Core m -> Core m'.
Proof.
  intros Hs Ha Hk6 [Hwf Hk1 Hk4 Hk5 _ Hac Hd]. constructor.
  - eapply WFx_struct; eauto.
  - eapply K1_struct; eauto.
  - eapply K4_struct; eauto.
  - eapply K5_struct; eauto.
  - assumption.
  - eapply acyc_struct; eauto.
  - eapply dead_inert_struct; eauto.
Qed.

Lemma K3at_struct m m' x :
  same_struct m m' -> (forall y, agg (m' y) = agg (m y)) ->
  valid (m' x) = valid (m x) -> sched (m' x) = sched (m x) -> K3at m x -> K3at m' x.
Proof.
  intros Hs Ha Hv Hsc. destruct (Hs x) as (_&Hc&Hl&_).
  apply K3at_ext; auto. apply fsa_ext; auto.
Qed.

Lemma same_struct_upd_scalar m x n :
  parent n = parent (m x) -> cur n = cur (m x) -> ls n = ls (m x) -> lu n = lu (m x) -> lr n = lr (m x) ->
  alive n = alive (m x) -> same_struct m (upd m x n).
Proof.
  intros H1 H2 H3 H4 H5 H6 y. destruct (upd_cases m x n y) as [[-> ->]|[_ ->]]; repeat split; assumption.
Qed.

(* moving x to its parent's needs-recalc list makes up for x being invalid and for its aggregate being off *)
Lemma resched_up_good G f m x m' :
  Core m -> listed m -> (forall y, y <> x -> K3at m y) -> (forall y, y <> x -> K2at G m y) ->
  resched_up f m x = Some m' -> Good G m'.
Proof.
  intros Hc Hl Hk3 Hk2 H. pose proof (c_wf _ Hc) as Hwf. unfold resched_up in H.
  destruct (parent (m x)) as [p|] eqn:Hp.
  - constructor; [constructor|].
    + eapply resched_R_Core; eauto.
    + eapply resched_R_listed; eauto using listed_is_except.
    + eapply resched_R_K3; eauto.
    + eapply resched_R_K2; eauto.
  - inversion H; subst m'. pose proof (wf_root _ _ Hwf x Hp) as Hcx. constructor; [constructor; auto|].
    + apply K3_all. intro y. destruct (Nat.eq_dec y x) as [->|Hy]; [|auto].
      intros _ Hsu. rewrite Hcx in Hsu. destruct Hsu; discriminate.
    + intros y HG Hv. destruct (Nat.eq_dec y x) as [->|Hy]; [now right|now apply Hk2].
Qed.

Lemma scalar_upd_at G m m2 x :
  Good G m -> (forall z, z <> x -> m2 z = m z) ->
  parent (m2 x) = parent (m x) -> cur (m2 x) = cur (m x) -> ls (m2 x) = ls (m x) -> lu (m2 x) = lu (m x) ->
  lr (m2 x) = lr (m x) -> alive (m2 x) = alive (m x) -> agg (m2 x) = agg (m x) -> (sched (m2 x) <= NEVER)%N ->
  Core m2 /\ listed m2 /\ (forall y, y <> x -> K3at m2 y) /\ (forall y, y <> x -> K2at G m2 y).
Proof.
  intros [[Hc Hl Hk3] Hk2] Ho H1 H2 H3 H4 H5 H6 H7 H8.
  assert (Hs : same_struct m m2).
  { intro y. destruct (Nat.eq_dec y x) as [->|Hy]; [|rewrite Ho by assumption]; repeat split; assumption. }
  assert (Ha : forall y, agg (m2 y) = agg (m y)).
  { intro y. destruct (Nat.eq_dec y x) as [->|Hy]; [assumption|now rewrite Ho]. }
  assert (Hk6 : K6 m2).
  { intro y. rewrite Ha. split; [|apply (c_k6 _ Hc)].
    destruct (Nat.eq_dec y x) as [->|Hy]; [assumption|rewrite Ho by assumption; apply (c_k6 _ Hc)]. }
  split; [eapply Core_struct; eauto|]. split; [eapply listed_struct; eauto|]. split.
  - intros y Hy. apply (K3at_struct m m2 y Hs Ha); try (now rewrite Ho). now apply K3_all.
  - intros y Hy HG Hvy. rewrite Ho in * by assumption. now apply Hk2.
Qed.

Lemma Good_scalar_upd G m x n :
  Good G m ->
  parent n = parent (m x) -> cur n = cur (m x) -> ls n = ls (m x) -> lu n = lu (m x) -> lr n = lr (m x) ->
  alive n = alive (m x) -> agg n = agg (m x) ->
  (sched n <= NEVER)%N ->
  (valid n = true -> su (cur (m x)) -> valid (m x) = true /\ sched n = sched (m x)) ->
  (valid n = false -> ~ G x -> rn (cur (m x))) ->
  Good G (upd m x n).
Proof.
  intros Hg H1 H2 H3 H4 H5 H6 H7 H8 H9 H10.
  destruct (scalar_upd_at G m (upd m x n) x Hg) as (Hc & Hl & Hk3 & Hk2);
    try (rewrite upd_same; assumption); [intros; now apply upd_other|].
  constructor; [constructor|]; auto.
  - apply K3_all. intro y. destruct (Nat.eq_dec y x) as [->|Hy]; [|auto].
    unfold K3at. rewrite upd_same, H2. intros Hv Hsu. destruct (H9 Hv Hsu) as [Hvx Hsx].
    rewrite H7, Hsx, (i_k3 _ (g_inv _ _ Hg) x Hvx Hsu). f_equal. unfold first_sched_agg. rewrite upd_same, H3.
    destruct (ls (m x)) as [|h t] eqn:Hls; [reflexivity|]. rewrite upd_other; [reflexivity|].
    intros ->. destruct (wf_head _ _ x LSched x _ (Good_wf _ _ Hg) Hls) as [Hp _].
    now apply (wf_noself _ _ (Good_wf _ _ Hg) x).
  - intros y HG Hv. destruct (Nat.eq_dec y x) as [->|Hy]; [|now apply Hk2].
    rewrite upd_same in *. rewrite H2. now apply H10.
Qed.

Lemma invalidate_spec G f m x cl m' :
  Good G m -> invalidate f m x cl = Some m' -> Good G m' /\ frame (fun z => z <> x) m m'.
Proof.
  intros Hg H. unfold invalidate in H. set (m1 := if cl then upd m x (set_sched (m x) NEVER) else m) in *.
  pose proof (proj1 (c_k6 _ (Good_core _ _ Hg) x)) as Hsx.
  assert (Ho1 : forall z, z <> x -> m1 z = m z) by (intros z Hz; unfold m1; destruct cl; [now apply upd_other|reflexivity]).
  assert (Hx1 : parent (m1 x) = parent (m x) /\ cur (m1 x) = cur (m x) /\ ls (m1 x) = ls (m x) /\ lu (m1 x) = lu (m x) /\
                lr (m1 x) = lr (m x) /\ alive (m1 x) = alive (m x) /\ agg (m1 x) = agg (m x) /\ valid (m1 x) = valid (m x) /\
                (sched (m1 x) <= NEVER)%N)
    by (unfold m1; destruct cl; rewrite ?upd_same; repeat split; auto; apply N.le_refl).
  destruct Hx1 as (E1 & E2 & E3 & E4 & E5 & E6 & E7 & E8 & E9). destruct (valid (m1 x)) eqn:Hv.
  - set (m2 := upd m1 x (set_valid (m1 x) false)) in *.
    assert (Ho2 : forall z, z <> x -> m2 z = m z) by (intros z Hz; unfold m2; rewrite upd_other by assumption; now apply Ho1).
    assert (Hx2 : m2 x = set_valid (m1 x) false) by apply upd_same.
    destruct (scalar_upd_at G m m2 x Hg Ho2) as (Hc2 & Hl2 & Hk32 & Hk22); try (rewrite Hx2; assumption).
    split; [eapply resched_up_good; eauto|].
    assert (F2 : frame (fun z => z <> x) m m2).
    { apply (frame_at m m2 x Ho2); rewrite Hx2; simpl.
      - discriminate.
      - intros _. split; congruence.
      - congruence. }
    eapply frame_trans; [exact F2| |auto|exact (fun _ _ _ => I)].
    eapply resched_up_frame; [apply (wf_noself _ _ (c_wf _ Hc2))|exact H].
  - inversion H; subst m'. destruct (scalar_upd_at G m m1 x Hg) as (Hc1 & Hl1 & Hk31 & Hk21); auto. split.
    + constructor; [constructor|]; auto.
      * apply K3_all. intro y. destruct (Nat.eq_dec y x) as [->|Hy]; [|auto]. intros Hv' _. congruence.
      * intros y HG Hvy. destruct (Nat.eq_dec y x) as [->|Hy]; [|now apply Hk21].
        rewrite E2. apply (g_k2 _ _ Hg); congruence.
    + apply frame_at; [assumption|congruence|intros _; split; congruence|congruence].
Qed.

(* assigning to a node that is on no list (a root, or a child between unlinking and relinking) *)

Lemma Core_detached_upd m x n :
  Core m -> cur (m x) = LNone -> (forall q l, ~ In x (get_list (m q) l)) ->
  cur n = LNone -> (forall l, get_list n l = get_list (m x) l) -> (agg n <= NEVER)%N -> (sched n <= NEVER)%N ->
  parent n <> Some x -> acyc (upd m x n) -> dead_inert (upd m x n) -> Core (upd m x n).
Proof.
  intros [Hwf Hk1 Hk4 Hk5 Hk6 _ _] Hcx Hun Hcn Hls Han Hsn Hpn Hac Hd. set (m' := upd m x n) in *.
  assert (Hx : m' x = n) by apply upd_same.
  assert (Ho : forall y, y <> x -> m' y = m y) by (intros; now apply upd_other).
  assert (Hgl : forall q l, get_list (m' q) l = get_list (m q) l).
  { intros q l. destruct (Nat.eq_dec q x) as [->|Hq]; [rewrite Hx; apply Hls|now rewrite Ho]. }
  assert (Hmem : forall q l c, In c (get_list (m q) l) -> c <> x) by (intros q l c Hin ->; now apply (Hun q l)).
  constructor; [constructor|..]; try assumption.
  - intros q c l Hin. rewrite Hgl in Hin. rewrite (Ho c (Hmem q l c Hin)). now apply (wf_in _ _ Hwf).
  - intros c q _ Hp Hc. rewrite Hgl. destruct (Nat.eq_dec c x) as [->|Hc']; [rewrite Hx in Hc; congruence|].
    rewrite Ho in * by assumption. now apply (wf_par _ _ Hwf).
  - intros c Hp. destruct (Nat.eq_dec c x) as [->|Hc']; [now rewrite Hx|]. rewrite Ho in * by assumption. now apply (wf_root _ _ Hwf).
  - intros q l. rewrite Hgl. apply (wf_nodup _ _ Hwf).
  - intros c. destruct (Nat.eq_dec c x) as [->|Hc']; [now rewrite Hx|]. rewrite Ho by assumption. apply (wf_noself _ _ Hwf).
  - intros e [].
  - intros y Hy. change (get_list (m' y) LRecalc <> []) in Hy. rewrite Hgl in Hy.
    destruct (Nat.eq_dec y x) as [->|Hy']; [rewrite Hx, Hcn; now right|]. rewrite Ho by assumption. now apply Hk1.
  - intros y. destruct (Nat.eq_dec y x) as [->|Hy']; [rewrite Hx, Hcn; split; discriminate|]. rewrite Ho by assumption. apply Hk4.
  - intros q. change (sorted m' (get_list (m' q) LSched)). rewrite Hgl. apply sorted_ext with (m := m); [|apply Hk5].
    intros c Hin. now rewrite (Ho c (Hmem q LSched c Hin)).
  - intros y. destruct (Nat.eq_dec y x) as [->|Hy']; [rewrite Hx; now split|]. rewrite Ho by assumption. apply Hk6.
Qed.

Lemma Good_detached_upd G m x n :
  Good G m -> cur (m x) = LNone -> (forall q l, ~ In x (get_list (m q) l)) ->
  cur n = LNone -> (forall l, get_list n l = get_list (m x) l) -> (agg n <= NEVER)%N -> (sched n <= NEVER)%N ->
  parent n = None -> acyc (upd m x n) -> dead_inert (upd m x n) -> Good G (upd m x n).
Proof.
  intros [[Hc Hl Hk3] Hk2] Hcx Hun Hcn Hls Han Hsn Hpn Hac Hd. set (m' := upd m x n) in *.
  assert (Hx : m' x = n) by apply upd_same.
  assert (Ho : forall y, y <> x -> m' y = m y) by (intros; now apply upd_other).
  constructor; [constructor|].
  - apply Core_detached_upd; auto. congruence.
  - intros c q Hp. destruct (Nat.eq_dec c x) as [->|Hc']; [rewrite Hx in Hp; congruence|].
    rewrite Ho in * by assumption. eapply Hl; eauto.
  - apply K3_all. intro y. destruct (Nat.eq_dec y x) as [->|Hy].
    + intros _ Hsu. rewrite Hx, Hcn in Hsu. destruct Hsu; discriminate.
    + unfold K3at. rewrite Ho by assumption. intros Hv Hsu. rewrite (Hk3 y Hv Hsu). f_equal.
      unfold first_sched_agg. rewrite Ho by assumption. destruct (ls (m y)) as [|h t] eqn:Hly; [reflexivity|].
      rewrite Ho; [reflexivity|]. intros ->. apply (Hun y LSched). simpl. rewrite Hly. now left.
  - intros y HG Hv. destruct (Nat.eq_dec y x) as [->|Hy]; [rewrite Hx, Hcn; now right|].
    rewrite Ho in * by assumption. now apply Hk2.
Qed.

Lemma resched_None f m p c m1 :
  cur (m c) <> LNone -> resched f m p c LNone = Some m1 -> m1 = unlink m p c LNone.
Proof.
  intros Hc H. destruct f as [|f]; [discriminate|]. rewrite resched_unfold in H.
  assert (Hno : lst_eqb LNone (cur (m c)) = false) by (apply lst_eqb_neq; congruence).
  rewrite Hno in H. simpl in H. now inversion H.
Qed.

Lemma Core_unlink_none m p c :
  Core m -> parent (m c) = Some p -> Core (unlink m p c LNone).
Proof.
  intros [Hwf Hk1 Hk4 Hk5 Hk6 Hac Hd] Hpar.
  assert (Hpc : p <> c) by (intro; subst; now apply (wf_noself _ _ Hwf c)).
  pose proof (same_scalars_unlink m p c LNone Hpc) as Hsc.
  assert (Hcr : cur_rel m (unlink m p c LNone)) by (apply cur_rel_unlink; [assumption|right; reflexivity]).
  constructor.
  - apply unlink_WFx_none; auto.
  - apply K1_unlink; auto. right; reflexivity.
  - eapply K4_mono; eauto.
  - now apply K5_unlink.
  - eapply K6_mono; eauto.
  - eapply acyc_mono; eauto.
  - eapply dead_inert_mono; eauto.
Qed.

(* child->_parent = NULL; child->_myScheduledTimeValid = false, for a child that is on no list *)
Definition orphan (m : nmap) (c : nat) : nmap := upd m c (set_valid (set_parent (m c) None) false).

Lemma orphan_cur m c q : cur (orphan m c q) = cur (m q).
Proof. now apply upd_proj. Qed.
Lemma orphan_alive m c q : alive (orphan m c q) = alive (m q).
Proof. now apply upd_proj. Qed.
Lemma orphan_parent_c m c : parent (orphan m c c) = None.
Proof. unfold orphan. now rewrite upd_same. Qed.
Lemma orphan_parent_o m c q : q <> c -> parent (orphan m c q) = parent (m q).
Proof. intro H. unfold orphan. now rewrite upd_other. Qed.
Lemma orphan_valid_c m c : valid (orphan m c c) = false.
Proof. unfold orphan. now rewrite upd_same. Qed.
Lemma orphan_valid_o m c q : q <> c -> valid (orphan m c q) = valid (m q).
Proof. intro H. unfold orphan. now rewrite upd_other. Qed.

Lemma Core_orphan m c :
  Core m -> cur (m c) = LNone -> (forall q l, ~ In c (get_list (m q) l)) -> Core (orphan m c).
Proof.
  intros Hc Hcc Hun. pose proof (c_k6 _ Hc c) as [Hs Ha].
  apply (Core_detached_upd m c _ Hc Hcc Hun); [exact Hcc|intro l; now destruct l|exact Ha|exact Hs|discriminate| |].
  - apply (acyc_cut m); [|apply (c_acyc _ Hc)]. intro y.
    destruct (Nat.eq_dec y c) as [->|Hy]; [right; apply orphan_parent_c|left; now apply orphan_parent_o].
  - intros x Hx. fold (orphan m c) in *. rewrite orphan_alive in Hx. destruct (c_dead _ Hc x Hx) as [H1 H2]. split.
    + destruct (Nat.eq_dec x c) as [->|Hxc]; [apply orphan_parent_c|now rewrite orphan_parent_o].
    + intros y. destruct (Nat.eq_dec y c) as [->|Hy]; [rewrite orphan_parent_c; discriminate|].
      rewrite orphan_parent_o by assumption. apply H2.
Qed.

Lemma K3at_upd_other m x n y : y <> x -> agg n = agg (m x) -> K3at m y -> K3at (upd m x n) y.
Proof.
  intros Hy Ha Hk. unfold K3at, first_sched_agg. rewrite upd_other by assumption. intros Hv Hsu. rewrite (Hk Hv Hsu).
  unfold first_sched_agg. destruct (ls (m y)); [reflexivity|]. now rewrite (upd_proj agg).
Qed.

Lemma remove_child_spec G f m p c m' :
  Good G m -> parent (m c) = Some p -> remove_child f m p c = Some m' ->
  Good G m' /\ parent (m' c) = None /\ (forall y, y <> c -> parent (m' y) = parent (m y)) /\
  (forall y, alive (m' y) = alive (m y)) /\ frame (fun z => z <> c) m m'.
Proof.
  intros [[Hc Hl Hk3] Hk2] Hpar H. unfold remove_child in H.
  assert (Hpe : opt_nat_eqb (parent (m c)) p = true) by (rewrite Hpar; simpl; apply Nat.eqb_refl).
  rewrite Hpe in H.
  destruct (resched f m p c LNone) as [m1|] eqn:Hr; [|discriminate].
  assert (Hcl : cur (m c) <> LNone) by (eapply Hl; eauto).
  pose proof (c_wf _ Hc) as Hwf.
  pose proof (resched_frame f m p c LNone m1 (wf_noself _ _ Hwf) Hpar (or_intror eq_refl) Hr) as F1.
  apply resched_None in Hr; [|assumption]. subst m1.
  assert (Hpc : p <> c) by (intro; subst; now apply (wf_noself _ _ Hwf c)).
  set (m1 := unlink m p c LNone) in *. fold (orphan m1 c) in H. set (m2 := orphan m1 c) in *.
  pose proof (Core_unlink_none m p c Hc Hpar) as Hc1. fold m1 in Hc1.
  assert (Hun : forall q l, ~ In c (get_list (m1 q) l)).
  { intros q l Hin. unfold m1 in Hin. apply (unlink_in_wf noexc m p c LNone Hwf Hpar) in Hin. tauto. }
  assert (Hcc1 : cur (m1 c) = LNone) by (unfold m1; now apply unlink_cur_c).
  pose proof (Core_orphan m1 c Hc1 Hcc1 Hun) as Hc2. fold m2 in Hc2.
  assert (Hl2 : listed m2).
  { intros y q Hq. unfold m2 in *. rewrite orphan_cur.
    destruct (Nat.eq_dec y c) as [->|Hy]; [rewrite orphan_parent_c in Hq; discriminate|].
    rewrite orphan_parent_o in Hq by assumption. unfold m1 in *. rewrite unlink_parent in Hq by assumption.
    rewrite unlink_cur_o by assumption. eapply Hl; eauto. }
  assert (Hk32 : forall y, (y <> p \/ hd_error (ls (m p)) <> Some c) -> K3at m2 y).
  { intros y Hy. destruct (Nat.eq_dec y c) as [->|Hyc].
    - intros _ Hsu. unfold m2 in Hsu. rewrite orphan_cur, Hcc1 in Hsu. destruct Hsu; discriminate.
    - unfold m2. apply K3at_upd_other; [assumption|reflexivity|]. unfold m1. apply K3at_unlink; auto. now apply K3_all. }
  assert (Hk22 : K2 G m2).
  { intros y HG Hv. unfold m2 in *. rewrite orphan_cur.
    destruct (Nat.eq_dec y c) as [->|Hy]; [right; assumption|].
    rewrite orphan_valid_o in Hv by assumption. unfold m1 in *. rewrite unlink_valid in Hv by assumption.
    rewrite unlink_cur_o by assumption. now apply Hk2. }
  assert (Hpar2 : forall y, y <> c -> parent (m2 y) = parent (m y)).
  { intros y Hy. unfold m2, m1. rewrite orphan_parent_o by assumption. now apply unlink_parent. }
  assert (Hal2 : forall y, alive (m2 y) = alive (m y)).
  { intro y. unfold m2, m1. rewrite orphan_alive. now apply unlink_alive. }
  assert (F2 : frame (fun z => z <> c) m m2).
  { eapply frame_trans; [exact F1|apply (frame_at m1 m2 c)|exact (fun _ _ => I)|auto]; unfold m2.
    - intros z Hz. unfold orphan. now apply upd_other.
    - rewrite orphan_valid_c. discriminate.
    - rewrite orphan_cur, Hcc1. intros [F|F]; discriminate.
    - now rewrite orphan_alive. }
  assert (Hrest : parent (m2 c) = None /\ (forall y, y <> c -> parent (m2 y) = parent (m y)) /\
                  (forall y, alive (m2 y) = alive (m y)) /\ frame (fun z => z <> c) m m2)
    by (split; [apply orphan_parent_c|split; [|split]; assumption]).
  destruct (opt_nat_eqb (hd_error (ls (m p))) c) eqn:Hd.
  2: { inversion H; subst m'. split; [constructor; [constructor|]|]; auto.
       apply K3_all. intro y. apply Hk32. right. intro Hh. rewrite Hh in Hd. simpl in Hd.
       rewrite Nat.eqb_refl in Hd. discriminate. }
  pose proof (wf_noself _ _ (c_wf _ Hc2)) as Hns2.
  pose proof (resched_up_scalars f m2 p m' Hns2 H) as Hsc.
  split; [eapply resched_up_good; eauto; intros y Hy HG Hv; now apply Hk22|].
  split; [destruct (Hsc c) as (->&_); apply orphan_parent_c|].
  split; [intros y Hy; destruct (Hsc y) as (->&_); now apply Hpar2|].
  split; [intros y; destruct (Hsc y) as (_&_&_&_&->&_); apply Hal2|].
  eapply frame_trans; [exact F2|eapply resched_up_frame; eassumption|auto|exact (fun _ _ _ => I)].
Qed.

(* child->_parent = this, for a parentless child that is on no list *)
Definition adopt (m : nmap) (p c : nat) : nmap := upd m c (set_parent (m c) (Some p)).

Lemma adopt_cur m p c q : cur (adopt m p c q) = cur (m q).
Proof. now apply upd_proj. Qed.
Lemma adopt_sched m p c q : sched (adopt m p c q) = sched (m q).
Proof. now apply upd_proj. Qed.
Lemma adopt_valid m p c q : valid (adopt m p c q) = valid (m q).
Proof. now apply upd_proj. Qed.
Lemma adopt_alive m p c q : alive (adopt m p c q) = alive (m q).
Proof. now apply upd_proj. Qed.
Lemma adopt_parent_c m p c : parent (adopt m p c c) = Some p.
Proof. unfold adopt. now rewrite upd_same. Qed.
Lemma adopt_parent_o m p c q : q <> c -> parent (adopt m p c q) = parent (m q).
Proof. intro H. unfold adopt. now rewrite upd_other. Qed.

Lemma Core_adopt m p c :
  Core m -> parent (m c) = None -> p <> c -> ~ desc m c p -> alive (m p) = true -> alive (m c) = true ->
  Core (adopt m p c).
Proof.
  intros Hc Hroot Hpc Hnd Hap Hacc. pose proof (c_wf _ Hc) as Hwf. pose proof (c_k6 _ Hc c) as [Hs Ha].
  assert (Hcc : cur (m c) = LNone) by now apply (wf_root _ _ Hwf).
  assert (Hun : forall q l, ~ In c (get_list (m q) l)).
  { intros q l Hin. destruct (wf_in _ _ Hwf _ _ _ Hin) as [Hp _]. congruence. }
  apply (Core_detached_upd m c _ Hc Hcc Hun); [exact Hcc|intro l; now destruct l|exact Ha|exact Hs|simpl; congruence| |].
  - apply (acyc_attach m (adopt m p c) p c); auto using adopt_parent_c; [apply (c_acyc _ Hc)|].
    intros y Hy. now apply adopt_parent_o.
  - intros x Hx. fold (adopt m p c) in *. rewrite adopt_alive in Hx. destruct (c_dead _ Hc x Hx) as [H1 H2].
    assert (Hxc : x <> c) by congruence. split; [now rewrite adopt_parent_o|].
    intros y. destruct (Nat.eq_dec y c) as [->|Hy]; [rewrite adopt_parent_c; congruence|].
    rewrite adopt_parent_o by assumption. apply H2.
Qed.

(* the first step of PutPulseChild and of ~PulseNode: leave the present parent, if any *)
Lemma detach_spec G f m c m1 :
  Good G m -> match parent (m c) with Some q => remove_child f m q c | None => Some m end = Some m1 ->
  Good G m1 /\ parent (m1 c) = None /\ (forall y q, parent (m1 y) = Some q -> parent (m y) = Some q) /\
  (forall y, alive (m1 y) = alive (m y)) /\ frame (fun z => z <> c) m m1.
Proof.
  intros Hg H. destruct (parent (m c)) as [q|] eqn:Hq.
  - destruct (remove_child_spec G f m q c m1 Hg Hq H) as (Hg1 & Hp1 & Hpo & Hal & F).
    split; [assumption|]. split; [assumption|]. split; [|split; assumption].
    intros y z Hy. destruct (Nat.eq_dec y c) as [->|Hyc]; [congruence|]. now rewrite <- Hpo.
  - inversion H; subst. split; [assumption|]. split; [assumption|]. split; [auto|]. split; [reflexivity|apply frame_refl].
Qed.

Lemma put_child_spec G f m p c m' :
  Good G m -> alive (m p) = true -> alive (m c) = true -> p <> c -> ~ desc m c p ->
  put_child f m p c = Some m' -> Good G m' /\ frame (fun z => z <> c) m m'.
Proof.
  intros Hg Hap Hac Hpc Hnd H. unfold put_child in H.
  destruct (match parent (m c) with Some q => remove_child f m q c | None => Some m end) as [m1|] eqn:Hd; [|discriminate].
  destruct (detach_spec G f m c m1 Hg Hd) as ([[Hc1 Hl1 Hk31] Hk21] & Hroot & Hsub & Hal & F1).
  assert (Hnd1 : ~ desc m1 c p) by (intro Hd'; apply Hnd; eapply desc_sub; eauto).
  assert (Hap1 : alive (m1 p) = true) by now rewrite Hal. assert (Hac1 : alive (m1 c) = true) by now rewrite Hal.
  fold (adopt m1 p c) in H. rename H into Hr.
  pose proof (Core_adopt m1 p c Hc1 Hroot Hpc Hnd1 Hap1 Hac1) as Hc2. pose proof (c_wf _ Hc2) as Hwf2.
  assert (Hcc : cur (m1 c) = LNone) by now apply (wf_root _ _ (c_wf _ Hc1)).
  set (m2 := adopt m1 p c) in *.
  assert (Hpar2 : parent (m2 c) = Some p) by apply adopt_parent_c.
  split; [constructor; [constructor|]|].
  - eapply resched_R_Core; eauto.
  - eapply resched_R_listed; eauto.
    intros y q Hy Hq. unfold m2 in *. rewrite adopt_cur. rewrite adopt_parent_o in Hq by assumption. eapply Hl1; eauto.
  - eapply resched_R_K3; eauto.
    intros y Hy. apply K3at_upd_other; [assumption|reflexivity|now apply K3_all].
  - eapply resched_R_K2; eauto.
    intros y _ HG Hv. unfold m2 in *. rewrite adopt_cur. rewrite adopt_valid in Hv. now apply Hk21.
  - eapply frame_trans; [exact F1| |auto|exact (fun _ Hz _ => Hz)].
    assert (F2 : frame (fun z => z <> c) m1 m2).
    { apply (frame_at m1 m2 c); unfold m2.
      - intros z Hz. unfold adopt. now apply upd_other.
      - rewrite adopt_valid, adopt_sched. auto.
      - rewrite adopt_cur, Hcc. intros [F|F]; discriminate.
      - now rewrite adopt_alive. }
    eapply frame_trans; [exact F2| |auto|exact (fun _ _ _ => I)].
    eapply resched_frame; [apply (wf_noself _ _ Hwf2)|exact Hpar2|left; reflexivity|exact Hr].
Qed.

Definition par_mono (m m' : nmap) : Prop := forall y, parent (m' y) = parent (m y) \/ parent (m' y) = None.

Lemma clear_list_spec G : forall f m x l m',
  Good G m -> clear_list f m x l = Some m' ->
  Good G m' /\ get_list (m' x) l = [] /\ par_mono m m' /\ (forall y, alive (m' y) = alive (m y)) /\
  frame (fun z => parent (m z) <> Some x) m m'.
Proof.
  induction f as [|f IH]; intros m x l m' Hg H; [discriminate|]. simpl in H.
  destruct (get_list (m x) l) as [|c t] eqn:Hl.
  - inversion H; subst. split; [assumption|]. split; [assumption|]. split; [intro y; now left|].
    split; [reflexivity|apply frame_refl].
  - destruct (remove_child f m x c) as [m1|] eqn:Hr; [|discriminate].
    assert (Hpar : parent (m c) = Some x).
    { apply (wf_in _ _ (Good_wf _ _ Hg) x c l). rewrite Hl. now left. }
    destruct (remove_child_spec G f m x c m1 Hg Hpar Hr) as (Hg1 & Hp1 & Hpo & Hal & F1).
    destruct (IH m1 x l m' Hg1 H) as (Hg' & He & Hpm & Hal' & Hfr).
    split; [assumption|]. split; [assumption|]. split; [|split].
    + intro y. destruct (Hpm y) as [Hy|Hy]; [|now right].
      destruct (Nat.eq_dec y c) as [->|Hyc]; [right; congruence|left; rewrite Hy; now apply Hpo].
    + intro y. now rewrite Hal', Hal.
    + eapply frame_trans; [exact F1|exact Hfr|intros z Hz; congruence|].
      intros z Hz (_ & Hp & _). congruence.
Qed.

Lemma clear_children_spec G f m x m' :
  Good G m -> clear_children f m x = Some m' ->
  Good G m' /\ (forall l, get_list (m' x) l = []) /\ par_mono m m' /\ (forall y, alive (m' y) = alive (m y)) /\
  frame (fun z => parent (m z) <> Some x) m m'.
Proof.
  intros Hg H. unfold clear_children in H.
  destruct (clear_list f m x LSched) as [m1|] eqn:H1; [|discriminate].
  destruct (clear_list f m1 x LUnsched) as [m2|] eqn:H2; [|discriminate].
  destruct (clear_list_spec G f m x LSched m1 Hg H1) as (Hg1 & He1 & Hp1 & Ha1 & F1).
  destruct (clear_list_spec G f m1 x LUnsched m2 Hg1 H2) as (Hg2 & He2 & Hp2 & Ha2 & F2).
  destruct (clear_list_spec G f m2 x LRecalc m' Hg2 H) as (Hg3 & He3 & Hp3 & Ha3 & F3).
  assert (F23 : frame (fun z => parent (m1 z) <> Some x) m1 m').
  { eapply frame_trans; [exact F2|exact F3|auto|]. intros z Hz (_ & Hp & _). congruence. }
  assert (Hwf : forall mm, Good G mm -> WF mm) by (intros mm Hgm; apply (Good_wf _ _ Hgm)).
  (* a list emptied by an earlier loop is not refilled by a later one *)
  assert (Hnil : forall mm l, WF mm -> op_mono mm m' -> su l -> get_list (mm x) l = [] -> get_list (m' x) l = []).
  { intros mm l Hw Hm Hl He. destruct (get_list (m' x) l) as [|a t] eqn:E; [reflexivity|].
    assert (Hin : In a (get_list (m' x) l)) by (rewrite E; now left).
    apply (op_mono_su_lists mm m' x l a Hw (Hwf _ Hg3) Hm Hl) in Hin. rewrite He in Hin. destruct Hin. }
  split; [assumption|]. split; [|split; [|split]].
  - intros l. destruct l; [reflexivity| | |assumption].
    + apply (Hnil m1); [auto|apply F23|now left|assumption].
    + apply (Hnil m2); [auto|apply F3|now right|assumption].
  - intro y. destruct (Hp3 y) as [H3|H3]; [|now right]. rewrite H3.
    destruct (Hp2 y) as [H2'|H2']; [|now right]. rewrite H2'. apply Hp1.
  - intro y. now rewrite Ha3, Ha2, Ha1.
  - eapply frame_trans; [exact F1|exact F23|auto|]. intros z Hz (_ & Hp & _). congruence.
Qed.

Lemma destroy_spec G f m x m' :
  Good G m -> destroy f m x = Some m' -> Good G m' /\ frame (fun z => z <> x /\ parent (m z) <> Some x) m m'.
Proof.
  intros Hg H. unfold destroy in H.
  destruct (match parent (m x) with Some p => remove_child f m p x | None => Some m end) as [m1|] eqn:Hd; [|discriminate].
  destruct (detach_spec G f m x m1 Hg Hd) as (Hg1 & Hroot & _ & _ & F1).
  destruct (clear_children f m1 x) as [m2|] eqn:Hcl; [|discriminate]. inversion H; subst m'. clear H.
  destruct (clear_children_spec G f m1 x m2 Hg1 Hcl) as ([[Hc2 Hl2 Hk32] Hk22] & Hemp & Hpm & Hal & F2).
  split.
  2: { eapply frame_trans; [exact F1| |tauto|exact (fun _ Hz _ => Hz)].
       eapply frame_trans; [exact F2|apply (frame_at m2 _ x)| |tauto].
       - intros z Hz. now apply upd_other.
       - rewrite upd_same. auto.
       - rewrite upd_same. auto.
       - rewrite upd_same. discriminate.
       - intros z [Hz Hp]. destruct F1 as [_ F1]. destruct (F1 z Hz) as (_ & E & _). congruence. }
  assert (Hpx : parent (m2 x) = None) by (destruct (Hpm x) as [Hy|Hy]; congruence).
  pose proof (c_wf _ Hc2) as Hwf. pose proof (c_k6 _ Hc2 x) as [Hs Ha].
  assert (Hcx : cur (m2 x) = LNone) by now apply (wf_root _ _ Hwf).
  assert (Hun : forall q l, ~ In x (get_list (m2 q) l)).
  { intros q l Hin. destruct (wf_in _ _ Hwf _ _ _ Hin) as [Hp _]. congruence. }
  apply (Good_detached_upd G m2 x _ (Build_Good _ _ (Build_Inv0 _ Hc2 Hl2 Hk32) Hk22) Hcx Hun);
    [exact Hcx|intro l; now destruct l|exact Ha|exact Hs|exact Hpx| |].
  - apply (acyc_ext m2); [|apply (c_acyc _ Hc2)]. intro y. now apply upd_proj.
  - assert (Hp3 : forall y, parent (upd m2 x (set_alive (m2 x) false) y) = parent (m2 y)) by (intro y; now apply upd_proj).
    intros y Hy. rewrite Hp3. destruct (Nat.eq_dec y x) as [->|Hyx].
    + split; [assumption|]. intros z Hz. rewrite Hp3 in Hz. pose proof (Hl2 z x Hz) as Hcz.
      pose proof (wf_par _ _ Hwf z x (fun F => F) Hz Hcz) as Hin. rewrite Hemp in Hin. destruct Hin.
    + rewrite upd_other in Hy by assumption. destruct (c_dead _ Hc2 y Hy) as [H1 H2]. split; [assumption|].
      intros z. rewrite Hp3. apply H2.
Qed.

(* the nodes whose _myScheduledTimeValid or _parent the operation may change *)
Definition withdraws (m : nmap) (o : cop) (z : nat) : Prop :=
  match o with
  | CInval x _ => z = x
  | CAttach _ c => z = c
  | CDetach _ c => z = c
  | CClear p => parent (m z) = Some p
  | CDestroy p => z = p \/ parent (m z) = Some p
  end.

Lemma apply_cop_spec G f m o m' :
  Good G m -> apply_cop f m o = Some m' -> Good G m' /\ frame (fun z => ~ withdraws m o z) m m'.
Proof.
  intros Hg H.
  assert (Hid : forall K, Some m = Some m' -> Good G m' /\ frame K m m').
  { intros K E. inversion E; subst. split; [assumption|apply frame_refl]. }
  destruct o as [x cl|p c|p c|x|x]; simpl in *.
  - destruct (alive (m x)); [|now apply Hid]. eapply invalidate_spec; eauto.
  - destruct (alive (m p)) eqn:Hap; [|now apply Hid]. destruct (alive (m c)) eqn:Hac; [|now apply Hid].
    destruct (Nat.eqb_spec p c) as [Heq|Hne]; [now apply Hid|]. simpl in H.
    destruct (is_anc f m c p) as [[|]|] eqn:Ha; [now apply Hid| |discriminate].
    apply (put_child_spec G f m p c m' Hg Hap Hac Hne); [|exact H]. exact (is_anc_false_not_desc m f c p Ha).
  - destruct (alive (m p) && alive (m c)); [|now apply Hid].
    destruct (parent (m c)) as [q|] eqn:Hq; [destruct (Nat.eq_dec q p) as [->|Hne]|].
    + now destruct (remove_child_spec G f m p c m' Hg Hq H) as (? & _ & _ & _ & ?).
    + unfold remove_child in H. rewrite Hq in H. simpl in H. apply Nat.eqb_neq in Hne. rewrite Hne in H. now apply Hid.
    + unfold remove_child in H. rewrite Hq in H. now apply Hid.
  - destruct (alive (m x)); [|now apply Hid].
    destruct (clear_children_spec G f m x m' Hg H) as (Hg' & _ & _ & _ & F). now split.
  - destruct (alive (m x)); [|now apply Hid].
    destruct (destroy_spec G f m x m' Hg H) as [Hg' [M F]]. split; [assumption|]. split; [assumption|].
    intros z Hz. apply F. tauto.
Qed.

Lemma apply_cop_good G f m o m' : Good G m -> apply_cop f m o = Some m' -> Good G m'.
Proof. intros Hg H. now destruct (apply_cop_spec G f m o m' Hg H). Qed.

Lemma apply_cop_frame G f m o m' :
  Good G m -> apply_cop f m o = Some m' -> frame (fun z => ~ withdraws m o z) m m'.
Proof. intros Hg H. now destruct (apply_cop_spec G f m o m' Hg H). Qed.

Lemma run_cops_spec G f : forall os m m', Good G m -> run_cops f m os = Some m' -> Good G m' /\ op_mono m m'.
Proof.
  induction os as [|o t IH]; intros m m' Hg H; simpl in H; [inversion H; subst; split; [assumption|apply op_mono_refl]|].
  destruct (apply_cop f m o) as [m1|] eqn:Ho; [|discriminate].
  destruct (apply_cop_spec G f m o m1 Hg Ho) as [Hg1 [M1 _]]. destruct (IH m1 m' Hg1 H) as [Hg' M].
  split; [assumption|eapply op_mono_trans; eauto].
Qed.
