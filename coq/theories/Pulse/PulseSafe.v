(* C20 -- GetPulseTime() callbacks that DO perform operations, as long as they leave alone the nodes whose own
   recalculation is running (the node itself and its ancestors up to the swept root).  An instrumented copy of
   GetPulseTimeAux carries that stack and refuses (returns None) an operation that would invalidate, detach, re-attach
   or destroy a stack node; whenever it returns a state, the plain model returns the same state (erasure), and the
   invariants [Good] are preserved.  The only excluded callbacks are thus exactly those of finding F16. *)
From Coq Require Import List Arith NArith Bool.
From Muscle Require Import Pulse.PulseModel Pulse.PulseInv Pulse.PulseForest Pulse.PulseResched Pulse.PulseOps
     Pulse.PulseSweep Pulse.PulseReach Pulse.PulseMin Pulse.PulseExact Pulse.PulseRefuted.
Import ListNotations.

Definition memb (x : nat) (F : list nat) : bool := existsb (Nat.eqb x) F.
Definition no_child_in (m : nmap) (F : list nat) (p : nat) : bool :=
  forallb (fun z => negb (opt_nat_eqb (parent (m z)) p)) F.

(* may operation o be performed while the recalculation of the nodes F is running? *)
Definition safe_op (m : nmap) (F : list nat) (o : cop) : bool :=
  match o with
  | CInval x _ => negb (memb x F)
  | CAttach _ c => negb (memb c F)
  | CDetach _ c => negb (memb c F)
  | CClear p => no_child_in m F p
  | CDestroy p => negb (memb p F) && no_child_in m F p
  end.

Fixpoint run_cops_s (f : nat) (F : list nat) (m : nmap) (os : list cop) : option nmap :=
  match os with
  | [] => Some m
  | o :: t =>
    if safe_op m F o then
      match apply_cop f m o with None => None | Some m1 => run_cops_s f F m1 t end
    else None
  end.

Section SafeModel.
  Variable gt : nmap -> nat -> nat -> N -> N -> N * list cop.
  Variable pl : nmap -> nat -> nat -> N -> N -> list cop.

  Definition get_self_s (f : nat) (F : list nat) (s : state) (x : nat) (now : N) : option state :=
    if valid (nd s x) then Some s
    else
      let k := ngt (nd s x) in
      let prev := sched (nd s x) in
      let m1 := upd (nd s) x (set_ngt (set_valid (nd s x) true) (S k)) in
      let r := gt m1 x k now prev in
      match run_cops_s f (x :: F) m1 (snd r) with
      | None => None
      | Some m2 => Some (mkSt (upd m2 x (set_sched (m2 x) (N.min (fst r) NEVER)))
                              (EGet x k now prev :: evs s))
      end.

  Fixpoint get_aux_s (f : nat) (F : list nat) (now : N) (s : state) (x : nat) (mn : N) : option (state * N) :=
    match f with
    | O => None
    | S f' =>
      match get_self_s f' F s x now with
      | None => None
      | Some s1 =>
        match loop_recalc (get_aux_s f' (x :: F) now) f' x s1 mn with
        | None => None
        | Some (s2, mn2) => get_finish f' s2 x mn2
        end
      end
    end.

  Definition top_get_s (f : nat) (s : state) (r : nat) (now : N) : option state :=
    if is_root (nd s) r then
      match get_aux_s f [] now s r NEVER with
      | None => None
      | Some (s1, mn) => Some (mkSt (nd s1) (EMin r mn :: evs s1))
      end
    else Some s.

  Definition step_s (f : nat) (s : state) (o : PulseModel.top) : option state :=
    match o with
    | TGet r now => top_get_s f s r now
    | TCycle r now => match top_get_s f s r now with None => None | Some s1 => top_pulse pl f s1 r now end
    | _ => step gt pl f s o
    end.

  Fixpoint run_s (f : nat) (s : state) (os : list PulseModel.top) : option state :=
    match os with
    | [] => Some s
    | o :: t => match step_s f s o with None => None | Some s1 => run_s f s1 t end
    end.

  Lemma run_cops_s_erase f F : forall os m m', run_cops_s f F m os = Some m' -> run_cops f m os = Some m'.
  Proof.
    induction os as [|o t IH]; intros m m' H; simpl in *; [assumption|].
    destruct (safe_op m F o); [|discriminate]. destruct (apply_cop f m o) as [m1|]; [|discriminate]. now apply IH.
  Qed.

  Lemma get_self_s_erase f F s x now s1 : get_self_s f F s x now = Some s1 -> get_self gt f s x now = Some s1.
  Proof.
    unfold get_self_s, get_self. destruct (valid (nd s x)); [auto|].
    destruct (run_cops_s f (x :: F) _ _) as [m2|] eqn:Hr; [|discriminate].
    rewrite (run_cops_s_erase _ _ _ _ _ Hr). auto.
  Qed.

  Lemma loop_recalc_mono (c1 c2 : state -> nat -> N -> option (state * N)) x :
    (forall s c mn r, c1 s c mn = Some r -> c2 s c mn = Some r) ->
    forall k s mn r, loop_recalc c1 k x s mn = Some r -> loop_recalc c2 k x s mn = Some r.
  Proof.
    intros Hc. induction k as [|k IH]; intros s mn r H; [discriminate|]. simpl in *.
    destruct (lr (nd s x)) as [|c t]; [assumption|].
    destruct (c1 s c mn) as [[s1 mn1]|] eqn:H1; [|discriminate]. rewrite (Hc _ _ _ _ H1). now apply IH.
  Qed.

  Lemma get_aux_s_erase now : forall f F s x mn r, get_aux_s f F now s x mn = Some r -> get_aux gt f now s x mn = Some r.
  Proof.
    induction f as [|f IH]; intros F s x mn r H; [discriminate|]. simpl in *.
    destruct (get_self_s f F s x now) as [s1|] eqn:Hs; [|discriminate]. rewrite (get_self_s_erase _ _ _ _ _ _ Hs).
    destruct (loop_recalc (get_aux_s f (x :: F) now) f x s1 mn) as [[s2 mn2]|] eqn:Hl; [|discriminate].
    rewrite (loop_recalc_mono (get_aux_s f (x :: F) now) (get_aux gt f now) x (fun s c mn r => IH (x :: F) s c mn r) f s1 mn _ Hl).
    assumption.
  Qed.

  Lemma top_get_s_erase f s r now s1 : top_get_s f s r now = Some s1 -> top_get gt f s r now = Some s1.
  Proof.
    unfold top_get_s, top_get. destruct (is_root (nd s) r); [|auto].
    destruct (get_aux_s f [] now s r NEVER) as [[sa mn]|] eqn:Ha; [|discriminate].
    now rewrite (get_aux_s_erase _ _ _ _ _ _ _ Ha).
  Qed.

  Lemma step_s_erase f s o s' : step_s f s o = Some s' -> step gt pl f s o = Some s'.
  Proof.
    destruct o; simpl; auto using top_get_s_erase.
    destruct (top_get_s f s r now) as [s1|] eqn:H1; [|discriminate]. now rewrite (top_get_s_erase _ _ _ _ _ H1).
  Qed.

  Lemma run_s_erase f : forall os s s', run_s f s os = Some s' -> run gt pl f s os = Some s'.
  Proof.
    induction os as [|o t IH]; intros s s' H; simpl in *; [assumption|].
    destruct (step_s f s o) as [s1|] eqn:H1; [|discriminate]. rewrite (step_s_erase _ _ _ _ H1). now apply IH.
  Qed.
End SafeModel.

(* F = nodes whose GetPulseTimeAux is running, innermost first: each is valid, on the needs-recalc list (or on
   none), and its parent is the next one (the outermost has no parent) *)
Fixpoint prot (F : list nat) (m : nmap) : Prop :=
  match F with
  | [] => True
  | z :: rest => valid (m z) = true /\ rn (cur (m z)) /\ parent (m z) = hd_error rest /\ alive (m z) = true /\ prot rest m
  end.

Lemma prot_keep F m m' :
  (forall z, In z F -> keeps m m' z /\ (rn (cur (m z)) -> rn (cur (m' z)))) -> prot F m -> prot F m'.
Proof.
  induction F as [|z rest IH]; simpl; [auto|]. intros Hk (Hv & Hc & Hp & Ha & Hr).
  destruct (Hk z (or_introl eq_refl)) as [(Kv & Kp & Ka) Kc].
  split; [congruence|]. split; [auto|]. split; [congruence|]. split; [congruence|]. apply IH; auto.
Qed.

Lemma prot_in F m z : prot F m -> In z F -> valid (m z) = true /\ rn (cur (m z)).
Proof.
  induction F as [|y rest IH]; simpl; intros Hp Hin; [destruct Hin|]. destruct Hp as (Hv & Hc & _ & _ & Hr).
  destruct Hin as [->|Hin]; auto.
Qed.

Lemma prot_parent F m c x : prot F m -> In c F -> parent (m c) = Some x -> In x F.
Proof.
  induction F as [|y rest IH]; simpl; intros Hp Hin Hpc; [destruct Hin|]. destruct Hp as (_ & _ & Hpy & _ & Hr).
  destruct Hin as [->|Hin].
  - rewrite Hpy in Hpc. destruct rest as [|w r]; [discriminate|]. simpl in Hpc. inversion Hpc; subst. right. now left.
  - right. eapply IH; eauto.
Qed.

Lemma memb_false x F : memb x F = false -> ~ In x F.
Proof.
  unfold memb. intros H Hin. assert (existsb (Nat.eqb x) F = true); [|congruence].
  apply existsb_exists. exists x. split; [assumption|apply Nat.eqb_refl].
Qed.

Lemma no_child_in_spec m F p z : no_child_in m F p = true -> In z F -> parent (m z) <> Some p.
Proof.
  unfold no_child_in. intros H Hin Hp. rewrite forallb_forall in H. specialize (H z Hin).
  rewrite Hp in H. simpl in H. rewrite Nat.eqb_refl in H. discriminate.
Qed.

Lemma safe_op_spec m F o z : safe_op m F o = true -> In z F -> ~ withdraws m o z.
Proof.
  intros Hs Hin Hw. destruct o as [x cl|p c|p c|x|x]; simpl in *.
  - subst z. apply negb_true_iff in Hs. now apply (memb_false x F).
  - subst z. apply negb_true_iff in Hs. now apply (memb_false c F).
  - subst z. apply negb_true_iff in Hs. now apply (memb_false c F).
  - now apply (no_child_in_spec m F x z).
  - apply andb_prop in Hs. destruct Hs as [H1 H2]. destruct Hw as [->|Hw].
    + apply negb_true_iff in H1. now apply (memb_false x F).
    + now apply (no_child_in_spec m F x z).
Qed.

Lemma run_cops_s_good G f F : forall os m m',
  Good G m -> prot F m -> run_cops_s f F m os = Some m' -> Good G m' /\ prot F m'.
Proof.
  induction os as [|o t IH]; intros m m' Hg Hp H; simpl in H; [inversion H; subst; auto|].
  destruct (safe_op m F o) eqn:Hs; [|discriminate].
  destruct (apply_cop f m o) as [m1|] eqn:Ho; [|discriminate].
  apply (IH m1 m'); [eapply apply_cop_good; eauto| |assumption].
  destruct (apply_cop_frame G f m o m1 Hg Ho) as [Hm Hk].
  apply (prot_keep F m m1); [|assumption]. intros z Hz. split; [|now apply op_mono_rn].
  apply Hk. eapply safe_op_spec; eauto.
Qed.

Section SafeSweep.
  Variable gt : nmap -> nat -> nat -> N -> N -> N * list cop.

  Lemma prot_upd_other F m x n : ~ In x F -> prot F m -> prot F (upd m x n).
  Proof.
    intros Hx. apply prot_keep. intros z Hz. assert (z <> x) by congruence.
    unfold keeps. rewrite upd_other by assumption. auto.
  Qed.

  Lemma get_self_s_good G f F s x now s1 :
    Good G (nd s) -> prot F (nd s) -> rn (cur (nd s x)) -> parent (nd s x) = hd_error F -> alive (nd s x) = true -> ~ In x F ->
    get_self_s gt f F s x now = Some s1 -> Good G (nd s1) /\ prot (x :: F) (nd s1).
  Proof.
    intros Hg Hp Hrn Hpar Hal Hx H. unfold get_self_s in H. destruct (valid (nd s x)) eqn:Hv.
    - inversion H; subst s1. split; [assumption|]. simpl. auto.
    - set (m1 := upd (nd s) x (set_ngt (set_valid (nd s x) true) (S (ngt (nd s x))))) in *.
      destruct (run_cops_s f (x :: F) m1 (snd (gt m1 x (ngt (nd s x)) now (sched (nd s x))))) as [m2|] eqn:Hr; [|discriminate].
      inversion H; subst s1. simpl. clear H.
      pose proof (Good_asked G (nd s) x Hg Hrn) as Hg1. fold m1 in Hg1.
      assert (Hp1 : prot (x :: F) m1).
      { simpl. unfold m1 at 1 2 3 4. rewrite !upd_same. simpl. split; [reflexivity|]. split; [assumption|]. split; [assumption|].
        split; [assumption|]. now apply prot_upd_other. }
      destruct (run_cops_s_good G f (x :: F) _ m1 m2 Hg1 Hp1 Hr) as [Hg2 Hp2].
      destruct Hp2 as (Hv2 & Hc2 & Hpa2 & Hal2 & Hr2).
      split.
      + now apply Good_answered.
      + simpl. rewrite !upd_same. simpl. split; [assumption|]. split; [assumption|]. split; [assumption|].
        split; [assumption|]. now apply prot_upd_other.
  Qed.

  Lemma get_aux_s_good now : forall f G F s x mn s' mn',
    Good G (nd s) -> prot F (nd s) -> rn (cur (nd s x)) -> parent (nd s x) = hd_error F -> alive (nd s x) = true ->
    ~ In x F ->
    get_aux_s gt f F now s x mn = Some (s', mn') ->
    Good G (nd s') /\ prot F (nd s') /\ valid (nd s' x) = true /\ alive (nd s' x) = true /\ lr (nd s' x) = [] /\
    agg (nd s' x) = N.min (sched (nd s' x)) (first_sched_agg (nd s') x) /\
    parent (nd s' x) = parent (nd s x) /\ (parent (nd s x) = None \/ su (cur (nd s' x))) /\
    (mn' <= agg (nd s' x))%N.
  Proof.
    induction f as [|f IH]; intros G F s x mn s' mn' Hg Hp Hrn Hpar Hal Hx H; [discriminate|]. simpl in H.
    destruct (get_self_s gt f F s x now) as [s1|] eqn:Hself; [|discriminate].
    destruct (loop_recalc (get_aux_s gt f (x :: F) now) f x s1 mn) as [[s2 mn2]|] eqn:Hloop; [|discriminate].
    destruct (get_self_s_good G f F s x now s1 Hg Hp Hrn Hpar Hal Hx Hself) as [Hg1 Hp1].
    set (P := fun (si : state) (_ : N) => Good G (nd si) /\ prot (x :: F) (nd si)).
    assert (Hstep : forall si c t mi si1 mi1, P si mi -> lr (nd si x) = c :: t ->
                      get_aux_s gt f (x :: F) now si c mi = Some (si1, mi1) -> P si1 mi1).
    { intros si c t mi si1 mi1 [Hgi Hpi] Hl Hcall.
      pose proof (Good_wf _ _ Hgi) as Hwfi.
      destruct (wf_head _ _ x LRecalc c _ Hwfi Hl) as [Hpc Hcc].
      assert (HcF : ~ In c (x :: F)).
      { intros [Heq|Hin]; [subst c; now apply (wf_noself _ _ Hwfi x)|].
        apply Hx. apply (prot_parent F (nd si) c x); [exact (proj2 (proj2 (proj2 (proj2 Hpi))))|assumption|assumption]. }
      assert (Halc : alive (nd si c) = true).
      { destruct (alive (nd si c)) eqn:E; [reflexivity|].
        destruct (c_dead _ (Good_core _ _ Hgi) c E) as [Hn _]. congruence. }
      destruct (IH G (x :: F) si c mi si1 mi1 Hgi Hpi (or_introl Hcc)) as (Hg' & Hp' & _); auto. split; assumption. }
    destruct (loop_recalc_ind P (get_aux_s gt f (x :: F) now) x Hstep f s1 mn s2 mn2 (conj Hg1 Hp1) Hloop)
      as ([Hg2 Hp2] & Hlr2).
    pose proof Hp2 as Hp2'. simpl in Hp2'. destruct Hp2' as (Hv2 & Hc2 & Hpa2 & Hal2 & HpF2).
    destruct (get_finish_good G f s2 x mn2 s' mn' Hg2 Hc2 Hv2 Hlr2 H)
      as (Hg' & [Hfp Hfo] & Hv' & Hs' & Ha' & Hsu' & HL' & Hmn').
    destruct (get_finish_exact G f s2 x mn2 s' mn' Hg2 Hc2 Hv2 Hlr2 H) as [Hlr' Hex'].
    split; [assumption|]. split; [|split; [assumption|split; [|split; [|split; [|split; [|split]]]]]].
    - apply (prot_keep F (nd s2) (nd s')); [|assumption]. intros z Hz. assert (z <> x) by congruence.
      destruct (Hfo z H0) as (E1&E2&_). destruct (Hfp z) as [E3 E4]. split; [repeat split; assumption|congruence].
    - destruct (Hfp x) as [_ E]. congruence.
    - exact Hlr'.
    - exact Hex'.
    - destruct (Hfp x) as [E _]. congruence.
    - destruct Hsu' as [Hn|Hs]; [left|right; assumption]. congruence.
    - rewrite Hmn'. apply N.le_min_r.
  Qed.
End SafeSweep.

Section SafeReach.
  Variable gt : nmap -> nat -> nat -> N -> N -> N * list cop.
  Variable pl : nmap -> nat -> nat -> N -> N -> list cop.

  (* GetPulseTime() callbacks may perform any operations that leave the running recalculations
     alone.  After the sweep (which is a run of the plain model) every node attached below the root is valid, nothing
     awaits recalculation, the root's aggregate is the minimum of the requested times, and the time reported to the
     manager is not later than that minimum (it may be earlier when a callback removed a node that had already been
     counted: a harmless early wake-up) *)
  Theorem recalc_min_safe f s r now s' :
    Good nobody (nd s) -> is_root (nd s) r = true -> top_get_s gt f s r now = Some s' ->
    top_get gt f s r now = Some s' /\
    exists mn, hd_error (evs s') = Some (EMin r mn) /\ (mn <= agg (nd s' r))%N /\
      Good nobody (nd s') /\
      (forall y, desc (nd s') r y -> settled (nd s') y /\ (agg (nd s' r) <= sched (nd s' y))%N) /\
      (exists y, desc (nd s') r y /\ sched (nd s' y) = agg (nd s' r)) /\
      agg (nd s' r) = N.min (sched (nd s' r)) (first_sched_agg (nd s') r) /\ is_root (nd s') r = true.
  Proof.
    intros Hg Hr H. split; [now apply top_get_s_erase|].
    unfold top_get_s in H. rewrite Hr in H.
    destruct (get_aux_s gt f [] now s r NEVER) as [[s1 mn]|] eqn:Ha; [|discriminate]. inversion H; subst s'. simpl. clear H.
    destruct (is_root_facts _ _ Hr) as [Hal Hp].
    destruct (get_aux_s_good gt now f nobody [] s r NEVER s1 mn Hg I (root_rn _ _ _ Hg Hr) Hp Hal (fun F => F) Ha)
      as (Hg1 & _ & Hv & Hal1 & Hlr & Hagg & Hpar & _ & Hmn).
    assert (Hrec : recalculated (nd s1) r).
    { split; [assumption|]. split; [unfold is_root; now rewrite Hpar, Hp, Hal1|]. split; [split|]; assumption. }
    destruct (recalculated_min _ _ Hrec) as [Hall Hatt].
    exists mn. split; [reflexivity|]. split; [assumption|]. split; [assumption|]. split; [assumption|].
    split; [assumption|]. split; [assumption|apply Hrec].
  Qed.

  Lemma top_get_s_good f s r now s' :
    Good nobody (nd s) -> top_get_s gt f s r now = Some s' -> Good nobody (nd s').
  Proof.
    intros Hg H. destruct (is_root (nd s) r) eqn:Hr.
    - now destruct (recalc_min_safe f s r now s' Hg Hr H) as (_ & mn & _ & _ & ? & _).
    - unfold top_get_s in H. rewrite Hr in H. inversion H; subst; assumption.
  Qed.

  Lemma step_s_good f s o s' : Good nobody (nd s) -> step_s gt pl f s o = Some s' -> Good nobody (nd s').
  Proof.
    intros Hg H. destruct o as [c|x|r now|r now|r now]; simpl in H.
    - destruct (apply_cop f (nd s) c) as [m|] eqn:Hc; [|discriminate]. inversion H; subst s'. simpl.
      eapply apply_cop_good; eauto.
    - destruct (alive (nd s x)) eqn:Ha; inversion H; subst s'; [assumption|]. simpl. now apply Good_new.
    - eapply top_get_s_good; eauto.
    - eapply top_pulse_good; eauto.
    - destruct (top_get_s gt f s r now) as [s1|] eqn:H1; [|discriminate].
      eapply top_pulse_good; [|eassumption]. eapply top_get_s_good; eauto.
  Qed.

  Lemma run_s_good f : forall os s s', Good nobody (nd s) -> run_s gt pl f s os = Some s' -> Good nobody (nd s').
  Proof.
    induction os as [|o t IH]; intros s s' Hg H; simpl in H; [inversion H; subst; assumption|].
    destruct (step_s gt pl f s o) as [s1|] eqn:Hs; [|discriminate]. eapply IH; [|eassumption]. eapply step_s_good; eauto.
  Qed.

  (* every history in which no GetPulseTime() callback touches a node whose own recalculation is
     running (= the instrumented run returns a state) is a history of the plain model and ends in a Good state.
     Pulse() callbacks are arbitrary, GetPulseTime() callbacks arbitrary up to that one restriction: together with
     reentrant_recalc_refuted, the excluded callbacks are exactly those of finding F16 *)
  Theorem reach_inv_safe f os s :
    run_s gt pl f init_state os = Some s -> run gt pl f init_state os = Some s /\ Good nobody (nd s).
  Proof.
    intro H. split; [now apply run_s_erase|]. apply (run_s_good f os init_state s); [exact Good_init|exact H].
  Qed.
End SafeReach.

(* one manager cycle whose GetPulseTime() callbacks restructure the forest off the recalculation
   stack (and whose Pulse() callbacks perform no operations): after the recalculation sweep every attached node is
   valid, and Pulse() runs on exactly the nodes attached then whose requested time is <= now *)
Theorem cycle_exact_safe gt pl :
  (forall m x k now st, pl m x k now st = []) ->
  forall f s r now s',
    (now < NEVER)%N -> Good nobody (nd s) -> is_root (nd s) r = true ->
    step_s gt pl f s (TCycle r now) = Some s' ->
    step gt pl f s (TCycle r now) = Some s' /\
    exists s1,
      top_get gt f s r now = Some s1 /\ top_pulse pl f s1 r now = Some s' /\
      (forall y, desc (nd s1) r y -> valid (nd s1 y) = true) /\
      Good nobody (nd s') /\
      exists d, evs s' = d ++ evs s1 /\ NoDup (map ev_node d) /\
        (forall e, In e d -> exists y k, e = EPulse y k now (sched (nd s1 y)) /\ desc (nd s1) r y /\ (sched (nd s1 y) <= now)%N) /\
        (forall y, desc (nd s1) r y -> (sched (nd s1 y) <= now)%N -> exists k, In (EPulse y k now (sched (nd s1 y))) d) /\
        (forall y, desc (nd s1) r y -> (sched (nd s1 y) <= now)%N ->
                   valid (nd s' y) = false /\ (parent (nd s' y) <> None -> cur (nd s' y) = LRecalc)).
Proof.
  intros pl_pure f s r now s' Hnow Hg Hr H. split; [now apply step_s_erase|]. simpl in H.
  destruct (top_get_s gt f s r now) as [s1|] eqn:H1; [|discriminate].
  destruct (recalc_min_safe gt f s r now s1 Hg Hr H1) as (He & mn & _ & _ & Hg1 & Hall & _ & Hagg & Hr1).
  exists s1. split; [assumption|]. split; [assumption|]. split.
  { intros y Hd. now destruct (Hall y Hd) as [[? _] _]. }
  assert (Hset : settled (nd s1) r) by (now destruct (Hall r (desc_self _ _))).
  apply (pulse_exact pl pl_pure f s1 r now s' Hnow Hg1 Hr1 Hset Hagg H).
Qed.

(* the history of finding F16 is refused ... *)
Lemma f16_history_refused : run_s rr_gt rr_pl 50 init_state rr_ops = None.
Proof. vm_compute. reflexivity. Qed.

(* ... while a history whose GetPulseTime() callbacks invalidate a sibling, detach another one and destroy a third is
   accepted (so the theorems above are not vacuous for callbacks that perform operations) *)
Definition sf_gt : nmap -> nat -> nat -> N -> N -> N * list cop :=
  fun _ x k _ _ => match x, k with
                 | 1, 0 => (7%N, [CInval 2 true; CDetach 0 3; CDestroy 4])
                 | 2, _ => (5%N, [])
                 | _, _ => (NEVER, [])
                 end.
Definition sf_pl : nmap -> nat -> nat -> N -> N -> list cop := fun _ _ _ _ _ => [].
Definition sf_ops : list PulseModel.top :=
  [TNew 0; TNew 1; TNew 2; TNew 3; TNew 4; TOp (CAttach 0 2); TOp (CAttach 0 3); TOp (CAttach 0 4); TOp (CAttach 0 1);
   TCycle 0 1%N; TCycle 0 6%N].

Example safe_history_accepted :
  exists s, run_s sf_gt sf_pl 60 init_state sf_ops = Some s /\
            parent (nd s 3) = None /\ alive (nd s 4) = false /\ parent (nd s 1) = Some 0 /\
            length (filter (is_pulse_of 2) (evs s)) = 1.
Proof. eexists. split; [vm_compute; reflexivity|]. repeat split. Qed.
