(* C20 -- the pulse sweep: never early, at most once, and -- on a freshly recalculated tree whose Pulse()
   callbacks do not restructure it -- exactly the due nodes. *)
From Coq Require Import List Arith NArith Bool Lia.
From Muscle Require Import Pulse.PulseModel Pulse.PulseInv Pulse.PulseForest Pulse.PulseResched Pulse.PulseOps
     Pulse.PulseSweep Pulse.PulseReach Pulse.PulseMin.
Import ListNotations.

(* no time becomes valid, and a node whose time is (still) valid has (still) the same time *)
Definition valid_mono (m m' : nmap) : Prop :=
  forall y, valid (m' y) = true -> valid (m y) = true /\ sched (m' y) = sched (m y).

Lemma valid_mono_refl m : valid_mono m m.
Proof. intros y H. auto. Qed.

Lemma valid_mono_trans m1 m2 m3 : valid_mono m1 m2 -> valid_mono m2 m3 -> valid_mono m1 m3.
Proof. intros H1 H2 y H. destruct (H2 y H) as [Hv Hs]. destruct (H1 y Hv) as [Hv' Hs']. split; congruence. Qed.

Lemma op_mono_valid m m' : op_mono m m' -> valid_mono m m'.
Proof. intros H y. apply (H y). Qed.

Definition ev_node (e : event) : nat :=
  match e with EGet x _ _ _ => x | EPulse x _ _ _ => x | EMin r _ => r end.

(* between s and s' the log grew by Pulse events only; each is for a node whose time was valid in s and at or
   before [now], carries exactly that time, and leaves the node invalid in s'; no node occurs twice *)
Definition ev_rel (now : N) (s s' : state) : Prop :=
  exists d, evs s' = d ++ evs s /\ valid_mono (nd s) (nd s') /\
    (forall e, In e d -> exists y k, e = EPulse y k now (sched (nd s y)) /\ (sched (nd s y) <= now)%N /\
                                     valid (nd s y) = true /\ valid (nd s' y) = false) /\
    NoDup (map ev_node d).

Lemma nodup_app_intro (l1 l2 : list nat) :
  NoDup l1 -> NoDup l2 -> (forall x, In x l1 -> In x l2 -> False) -> NoDup (l1 ++ l2).
Proof.
  induction l1 as [|a t IH]; simpl; intros H1 H2 Hd; [assumption|].
  inversion H1; subst. constructor.
  - rewrite in_app_iff. intros [Hin|Hin]; [contradiction|]. apply (Hd a); auto.
  - apply IH; auto. intros x Hx. apply Hd. now right.
Qed.

Section AnyPulse.
  Variable pl : nmap -> nat -> nat -> N -> N -> list cop.

  (* what a part of a pulse sweep adds to the log: [ev_rel], and when the callbacks perform no operations the log is
     complete, since then a time stops being valid only by firing *)
  Definition sweep_log (now : N) (s s' : state) : Prop :=
    exists d, evs s' = d ++ evs s /\ valid_mono (nd s) (nd s') /\
      (forall e, In e d -> exists y k, e = EPulse y k now (sched (nd s y)) /\ (sched (nd s y) <= now)%N /\
                                       valid (nd s y) = true /\ valid (nd s' y) = false) /\
      NoDup (map ev_node d) /\
      ((forall m x k now st, pl m x k now st = []) ->
       forall y, valid (nd s y) = true -> valid (nd s' y) = false -> exists k, In (EPulse y k now (sched (nd s y))) d).

  Lemma sweep_log_ev now s s' : sweep_log now s s' -> ev_rel now s s'.
  Proof. intros (d & H1 & H2 & H3 & H4 & _). exists d. auto. Qed.

  Lemma sweep_log_quiet now s s' :
    evs s' = evs s -> (forall y, valid (nd s' y) = valid (nd s y) /\ sched (nd s' y) = sched (nd s y)) -> sweep_log now s s'.
  Proof.
    intros He Hsame. exists []. split; [assumption|]. split; [|split; [intros e []|split; [constructor|]]].
    - intros y Hy. destruct (Hsame y) as [Hv Hs]. split; congruence.
    - intros _ y H1 H2. destruct (Hsame y) as [Hv _]. congruence.
  Qed.

  Lemma sweep_log_trans now s1 s2 s3 : sweep_log now s1 s2 -> sweep_log now s2 s3 -> sweep_log now s1 s3.
  Proof.
    intros (d1 & He1 & Hv1 & Hd1 & Hn1 & Hc1) (d2 & He2 & Hv2 & Hd2 & Hn2 & Hc2).
    exists (d2 ++ d1). split; [rewrite He2, He1; now rewrite app_assoc|].
    split; [eapply valid_mono_trans; eauto|]. split; [|split].
    - intros e Hin. apply in_app_iff in Hin. destruct Hin as [Hin|Hin].
      + destruct (Hd2 e Hin) as (y & k & -> & Hle & Hvy & Hvy'). destruct (Hv1 y Hvy) as [Hv0 Hs0].
        exists y, k. rewrite <- Hs0. auto.
      + destruct (Hd1 e Hin) as (y & k & -> & Hle & Hvy & Hvy'). exists y, k. split; [reflexivity|].
        split; [assumption|]. split; [assumption|].
        destruct (valid (nd s3 y)) eqn:Hv3; [|reflexivity]. destruct (Hv2 y Hv3) as [Hc _]. congruence.
    - rewrite map_app. apply nodup_app_intro; auto.
      intros n Hn2' Hn1'. apply in_map_iff in Hn2'. apply in_map_iff in Hn1'.
      destruct Hn2' as (e2 & <- & Hin2). destruct Hn1' as (e1 & Heq & Hin1).
      destruct (Hd2 e2 Hin2) as (y2 & k2 & -> & _ & Hvy2 & _).
      destruct (Hd1 e1 Hin1) as (y1 & k1 & -> & _ & _ & Hvy1). simpl in Heq. subst y1. congruence.
    - intros Hq y Hy1 Hy3. destruct (valid (nd s2 y)) eqn:Hy2.
      + destruct (Hc2 Hq y Hy2 Hy3) as (k & Hin). destruct (Hv1 y Hy2) as [_ Hs0]. rewrite Hs0 in Hin.
        exists k. apply in_app_iff. now left.
      + destruct (Hc1 Hq y Hy1 Hy2) as (k & Hin). exists k. apply in_app_iff. now right.
  Qed.

  Lemma pulse_self_log G f s x now s1 :
    Good G (nd s) -> pulse_self pl f s x now = Some s1 -> sweep_log now s s1.
  Proof.
    intros Hg H. pose proof (op_mono_valid _ _ (pulse_self_mono pl G f s x now s1 Hg H)) as Hvm.
    unfold pulse_self in H. destruct (valid (nd s x) && N.leb (sched (nd s x)) now) eqn:Hdue.
    - apply andb_prop in Hdue. destruct Hdue as [Hv Hle]. apply N.leb_le in Hle.
      set (m1 := upd (nd s) x (set_npl (nd s x) (S (npl (nd s x))))) in *.
      destruct (run_cops f m1 (pl m1 x (npl (nd s x)) now (sched (nd s x)))) as [m2|] eqn:Hr; [|discriminate].
      inversion H; subst s1. clear H.
      exists [EPulse x (npl (nd s x)) now (sched (nd s x))]. simpl in *.
      split; [reflexivity|]. split; [assumption|]. split; [|split].
      + intros e [<-|[]]. exists x, (npl (nd s x)). now rewrite upd_same.
      + constructor; [intros []|constructor].
      + intros Hq y H1 H2. destruct (Nat.eq_dec y x) as [->|Hyx]; [eauto|].
        rewrite Hq in Hr. inversion Hr; subst m2. unfold m1 in H2. rewrite !upd_other in H2 by assumption. congruence.
    - inversion H; subst. apply sweep_log_quiet; auto.
  Qed.

  Lemma pulse_aux_log now : forall f G s x s',
    Good G (nd s) -> pulse_aux pl f now s x = Some s' -> sweep_log now s s'.
  Proof.
    apply (pulse_aux_rel pl (sweep_log now) now).
    - intro s. apply sweep_log_quiet; auto.
    - apply sweep_log_trans.
    - intros G f s x s1. apply pulse_self_log.
    - intros G f s x m3 Hg Hr. apply sweep_log_quiet; [reflexivity|]. simpl.
      intro y. now destruct (resched_up_scalars f (nd s) x m3 (wf_noself _ _ (Good_wf _ _ Hg)) Hr y) as (_&_&?&?&_).
  Qed.

  (* whatever the Pulse() callbacks do (invalidate, detach, re-parent, destroy any nodes),
     a pulse sweep of the manager calls Pulse() only on nodes whose requested time was valid and at or before
     [now] when the sweep began, passes exactly that time, calls no node twice, and leaves each called node
     invalid (so that it is asked again) -- and the invariants hold afterwards *)
  Theorem pulse_never_early_once f s r now s' :
    Good nobody (nd s) -> top_pulse pl f s r now = Some s' ->
    Good nobody (nd s') /\ ev_rel now s s'.
  Proof.
    intros Hg H. split; [eapply top_pulse_good; eauto|]. apply sweep_log_ev.
    unfold top_pulse in H. destruct (is_root (nd s) r); [|inversion H; subst; apply sweep_log_quiet; auto].
    destruct (N.leb (agg (nd s r)) now); [|inversion H; subst; apply sweep_log_quiet; auto].
    eapply pulse_aux_log; eauto.
  Qed.
End AnyPulse.

Lemma loop_sched_exit call : forall k x now s s',
  loop_sched call k x now s = Some s' ->
  match ls (nd s' x) with [] => True | c :: _ => (now < agg (nd s' c))%N end.
Proof.
  induction k as [|k IH]; intros x now s s' H; [discriminate|]. simpl in H.
  destruct (ls (nd s x)) as [|c t] eqn:Hl.
  - inversion H; subst. now rewrite Hl.
  - destruct (N.leb_spec (agg (nd s c)) now) as [Hle|Hgt].
    + destruct (call s c) as [s1|]; [|discriminate]. eapply IH; eauto.
    + inversion H; subst. now rewrite Hl.
Qed.

Definition pframe (m m' : nmap) (x : nat) : Prop :=
  (forall y, parent (m' y) = parent (m y) /\ sched (m' y) = sched (m y) /\ agg (m' y) = agg (m y)) /\
  (forall z, ~ desc m x z -> valid (m' z) = valid (m z)) /\
  (forall z, ~ desc m x z -> ~ desc m z x -> cur (m' z) = cur (m z)).

Section PurePulse.
  Variable pl : nmap -> nat -> nat -> N -> N -> list cop.
  Hypothesis pl_pure : forall m x k now st, pl m x k now st = [].

  Lemma pulse_self_pure f s x now s1 :
    pulse_self pl f s x now = Some s1 ->
    (forall y, y <> x -> nd s1 y = nd s y) /\
    parent (nd s1 x) = parent (nd s x) /\ sched (nd s1 x) = sched (nd s x) /\ agg (nd s1 x) = agg (nd s x) /\
    cur (nd s1 x) = cur (nd s x) /\
    (valid (nd s1 x) = false <-> valid (nd s x) = false \/ (sched (nd s x) <= now)%N).
  Proof.
    intro H. unfold pulse_self in H. destruct (valid (nd s x)) eqn:Hv; simpl in H.
    - destruct (N.leb_spec (sched (nd s x)) now) as [Hle|Hgt].
      + rewrite pl_pure in H. simpl in H. inversion H; subst s1. simpl.
        split; [intros y Hy; now rewrite !upd_other by assumption|].
        rewrite !upd_same. simpl. repeat split; auto.
      + inversion H; subst s1. repeat split; auto; try congruence.
        intros [F|F]; [congruence|lia].
    - inversion H; subst s1. repeat split; auto.
  Qed.

  Lemma pulse_aux_pframe now : forall f G s x s',
    Good G (nd s) -> pulse_aux pl f now s x = Some s' -> pframe (nd s) (nd s') x.
  Proof.
    induction f as [|f IH]; intros G s x s' Hg H; [discriminate|].
    destruct (pulse_aux_inv pl now f G s x s' Hg H) as (s1 & s2 & m3 & Hs & Hg1 & Hl & Hr & ->). simpl. clear H.
    destruct (pulse_self_pure f s x now s1 Hs) as (Ho & Hp1 & Hs1 & Ha1 & Hc1 & _).
    set (G' := fun y => G y \/ y = x) in *.
    assert (Hf1 : pframe (nd s) (nd s1) x).
    { split; [|split].
      - intro y. destruct (Nat.eq_dec y x) as [->|Hy]; [auto|rewrite Ho by assumption; auto].
      - intros z Hz. assert (z <> x) by (intro; subst; apply Hz; constructor). now rewrite Ho.
      - intros z Hz _. assert (z <> x) by (intro; subst; apply Hz; constructor). now rewrite Ho. }
    assert (H2 : Good G' (nd s2) /\ pframe (nd s) (nd s2) x).
    { apply (loop_sched_ind2 (fun si => Good G' (nd si) /\ pframe (nd s) (nd si) x) (pulse_aux pl f now) x now) with (k := f) (s := s1); [|split; assumption|exact Hl].
      intros si c t si1 [Hgi (Hsc & Hv & Hc)] Hls _ Hcall. split; [eapply pulse_aux_good; eauto|].
      destruct (IH G' si c si1 Hgi Hcall) as (Hsc' & Hv' & Hc').
      assert (Hpar : forall y, parent (nd si y) = parent (nd s y)) by (intro y; now destruct (Hsc y) as (->&_)).
      assert (Hcx : parent (nd s c) = Some x).
      { rewrite <- Hpar. apply (wf_in _ _ (Good_wf _ _ Hgi) x c LSched). simpl. rewrite Hls. now left. }
      assert (Hdx : forall z, desc (nd si) c z -> desc (nd s) x z).
      { intros z Hd. apply desc_trans with (b := c); [eapply desc_child; [constructor|exact Hcx]|].
        apply (desc_parent_ext (nd si)); [|assumption]. intro y. symmetry. apply Hpar. }
      split; [|split].
      - intro y. destruct (Hsc y) as (A1&A2&A3). destruct (Hsc' y) as (B1&B2&B3). repeat split; congruence.
      - intros z Hz. rewrite Hv', Hv; auto.
      - intros z Hz Hzx. rewrite Hc', Hc; auto.
        intro Hd. apply (desc_parent_ext (nd si) (nd s)) in Hd; [|intro y; symmetry; apply Hpar].
        apply desc_inv in Hd. destruct Hd as [->|(q & Hq & Hd)].
        + apply Hz. eapply desc_child; [constructor|exact Hcx].
        + assert (q = x) by congruence. subst q. contradiction. }
    destruct H2 as [Hg2 (Hsc & Hv & Hc)].
    pose proof (Good_wf _ _ Hg2) as Hwf2.
    assert (Hns2 : forall y, parent (nd s2 y) <> Some y) by apply (wf_noself _ _ Hwf2).
    unfold resched_up in Hr. destruct (parent (nd s2 x)) as [p|] eqn:Hp; [|inversion Hr; subst m3; split; [exact Hsc|split; assumption]].
    pose proof (resched_scalars f (nd s2) p x LRecalc m3 Hp Hns2 Hr) as Hsc3.
    split; [|split].
    - intro y. destruct (Hsc y) as (A1&A2&A3). destruct (Hsc3 y) as (B1&B2&B3&_). repeat split; congruence.
    - intros z Hz. destruct (Hsc3 z) as (_&_&_&B4&_). rewrite B4. auto.
    - intros z Hz Hzx. rewrite <- Hc by assumption.
      apply (resched_R_cur_frame f (nd s2) p x m3 Hp Hns2 Hr).
      + intro; subst; apply Hz; constructor.
      + intro Hd. apply Hzx. eapply desc_child.
        * apply (desc_parent_ext (nd s2) (nd s)); [|exact Hd]. intro y. now destruct (Hsc y) as (->&_).
        * destruct (Hsc x) as (A1&_). congruence.
  Qed.

  (* the state of a child subtree during the parent's loop *)
  Definition untouched (m mi : nmap) (c : nat) : Prop :=
    forall y, desc m c y -> valid (mi y) = true /\ cur (mi y) = cur (m y).
  Definition swept (now : N) (m mi : nmap) (c : nat) : Prop :=
    cur (mi c) = LRecalc /\
    forall y, desc m c y -> (valid (mi y) = false <-> (sched (m y) <= now)%N /\ agg (m y) <> NEVER).

  (* for ANY pulse instant, MUSCLE_TIME_NEVER included: below a frame's node x exactly the nodes fire whose time is
     <= now and whose aggregate is finite (they are reachable through scheduled lists); x itself fires iff its time is
     <= now *)
  Lemma pulse_aux_exact now : forall f G s x s',
    Good G (nd s) ->
    (forall y, desc (nd s) x y -> valid (nd s y) = true) ->
    (forall y, desc (nd s) x y -> y <> x -> su (cur (nd s y))) ->
    (forall c y, desc (nd s) x c -> desc (nd s) c y ->
                 (agg (nd s c) <= sched (nd s y))%N /\ (agg (nd s c) <= agg (nd s y))%N) ->
    pulse_aux pl f now s x = Some s' ->
    (forall y, desc (nd s) x y ->
       (valid (nd s' y) = false <-> (sched (nd s y) <= now)%N /\ (y = x \/ agg (nd s y) <> NEVER))) /\
    (parent (nd s x) <> None -> cur (nd s' x) = LRecalc).
  Proof.
    induction f as [|f IH]; intros G s x s' Hg Hval Hsu HLB H; [discriminate|].
    destruct (pulse_aux_inv pl now f G s x s' Hg H) as (s1 & s2 & m3 & Hs & Hg1 & Hl & Hr & ->). simpl. clear H.
    set (m := nd s) in *.
    destruct (pulse_self_pure f s x now s1 Hs) as (Ho & Hp1 & Hs1 & Ha1 & Hc1 & Hv1).
    set (G' := fun y => G y \/ y = x) in *.
    pose proof (c_acyc _ (Good_core _ _ Hg)) as Hac.
    (* facts that never change during the sweep *)
    set (stat := fun mi : nmap => forall y, parent (mi y) = parent (m y) /\ sched (mi y) = sched (m y) /\ agg (mi y) = agg (m y)).
    assert (Hst1 : stat (nd s1)).
    { intro y. destruct (Nat.eq_dec y x) as [->|Hy]; [auto|rewrite Ho by assumption; auto]. }
    set (P := fun si : state =>
      Good G' (nd si) /\ stat (nd si) /\ valid (nd si x) = valid (nd s1 x) /\
      (forall c, parent (m c) = Some x -> untouched m (nd si) c \/ swept now m (nd si) c)).
    assert (Hxc : forall c, parent (m c) = Some x -> ~ desc m c x) by (intros c Hc; now apply acyc_no_cycle).
    assert (HP1 : P s1).
    { split; [assumption|]. split; [assumption|]. split; [reflexivity|].
      intros c Hc. left. intros y Hd.
      assert (Hyx : y <> x) by (intro; subst; now apply (Hxc c)).
      rewrite Ho by assumption. split; [|reflexivity]. apply Hval.
      apply desc_trans with (b := c); [eapply desc_child; [constructor|exact Hc]|assumption]. }
    assert (Hstep : forall si c t si1, P si -> ls (nd si x) = c :: t -> (agg (nd si c) <= now)%N ->
                      pulse_aux pl f now si c = Some si1 -> P si1).
    { intros si c t si1 (Hgi & Hsti & Hvxi & Hch) Hls _ Hcall.
      pose proof (Good_wf _ _ Hgi) as Hwfi.
      assert (Hpari : forall y, parent (nd si y) = parent (m y)) by (intro y; now destruct (Hsti y) as (->&_)).
      assert (Hdi : forall a z, desc (nd si) a z <-> desc m a z).
      { intros a z. split; apply desc_parent_ext; intro y; [symmetry|]; apply Hpari. }
      destruct (wf_head _ _ x LSched c _ Hwfi Hls) as [Hpc Hcc].
      assert (Hcx : parent (m c) = Some x) by (rewrite <- Hpari; exact Hpc).
      assert (Hdxc : desc m x c) by (eapply desc_child; [constructor|exact Hcx]).
      destruct (Hch c Hcx) as [Hun|[Hsw _]]; [|rewrite Hsw in Hcc; discriminate].
      pose proof (pulse_aux_pframe now f G' si c si1 Hgi Hcall) as (Hsc' & Hv' & Hc').
      destruct (IH G' si c si1 Hgi) as [Hex Hrec]; auto.
      - intros y Hd. apply Hdi in Hd. now destruct (Hun y Hd).
      - intros y Hd Hyc. apply Hdi in Hd. destruct (Hun y Hd) as [_ Hcy]. rewrite Hcy. apply Hsu.
        + eapply desc_trans; eauto.
        + intro; subst y. now apply (Hxc c).
      - intros a y Ha Hy. apply Hdi in Ha. apply Hdi in Hy.
        destruct (Hsti a) as (_&_&->). destruct (Hsti y) as (_&->&->). apply HLB; [eapply desc_trans; eauto|assumption].
      - split; [eapply pulse_aux_good; eauto|]. split; [|split].
        + intro y. destruct (Hsti y) as (A1&A2&A3). destruct (Hsc' y) as (B1&B2&B3). repeat split; congruence.
        + rewrite <- Hvxi. apply Hv'. intro Hd. apply Hdi in Hd. now apply (Hxc c).
        + intros c' Hc'x. destruct (Nat.eq_dec c' c) as [->|Hne].
          * right. split; [apply Hrec; rewrite Hpc; discriminate|].
            assert (Hacn : agg (m c) <> NEVER).
            { destruct (Hsti c) as (_&_&<-). now apply (c_k4 _ (Good_core _ _ Hgi) c). }
            intros y Hd. destruct (Hsti y) as (_&Hsy&Hay).
            destruct (Hex y (proj2 (Hdi c y) Hd)) as [E1 E2]. rewrite Hsy, Hay in E1, E2. split.
            -- intro Hv. destruct (E1 Hv) as [Hle [->|Hn]]; auto.
            -- intros [Hle Hn]. apply E2. auto.
          * assert (Hd1 : forall y, desc m c' y -> ~ desc (nd si) c y).
            { intros y Hy Hd. apply Hdi in Hd. apply (siblings_disjoint m x c' c y Hac Hc'x Hcx Hne Hy Hd). }
            assert (Hd2 : forall y, desc m c' y -> ~ desc (nd si) y c).
            { intros y Hy Hd. apply Hdi in Hd. apply (sibling_not_above m x c' c y Hac Hc'x Hcx Hne Hy Hd). }
            destruct (Hch c' Hc'x) as [Hun'|[Hsw1 Hsw2]]; [left|right].
            -- intros y Hy. destruct (Hun' y Hy) as [U1 U2]. rewrite Hv' by auto. rewrite Hc' by auto. auto.
            -- split; [rewrite Hc'; [assumption|apply Hd1; constructor|apply Hd2; constructor]|].
               intros y Hy. rewrite Hv' by auto. now apply Hsw2. }
    assert (HP2 : P s2).
    { apply (loop_sched_ind2 P (pulse_aux pl f now) x now Hstep f s1 s2 HP1 Hl). }
    destruct HP2 as (Hg2 & Hst2 & Hvx2 & Hch2).
    pose proof (loop_sched_exit (pulse_aux pl f now) f x now s1 s2 Hl) as Hexit.
    pose proof (Good_core _ _ Hg2) as Hcore2. pose proof (c_wf _ Hcore2) as Hwf2.
    assert (Hns2 : forall y, parent (nd s2 y) <> Some y) by apply (wf_noself _ _ Hwf2).
    (* the final move of x to its parent's needs-recalc list changes no validity *)
    assert (Hv3 : forall y, valid (m3 y) = valid (nd s2 y)).
    { intro y. unfold resched_up in Hr. destruct (parent (nd s2 x)) as [p|] eqn:Hp; [|inversion Hr; subst; reflexivity].
      now destruct (resched_scalars f (nd s2) p x LRecalc m3 Hp Hns2 Hr y) as (_&_&_&?&_). }
    split.
    - intros y Hd. rewrite Hv3. destruct (Nat.eq_dec y x) as [->|Hyx].
      + assert (Hvx : valid (nd s x) = true) by (apply (Hval x Hd)).
        rewrite Hvx2, Hv1, Hvx. unfold m. intuition congruence.
      + destruct (desc_via_child m x y Hd Hyx) as (c & Hcx & Hdc).
        destruct (Hch2 c Hcx) as [Hun|[_ Hsw]]; [|rewrite (Hsw y Hdc); unfold m; intuition congruence].
        destruct (Hun y Hdc) as [Hvy _]. destruct (Hun c (desc_self _ _)) as [_ Hcc].
        assert (Hdxc : desc m x c) by (eapply desc_child; [constructor|exact Hcx]).
        assert (Hcne : c <> x) by (intro; subst c; now apply (wf_noself _ _ (Good_wf _ _ Hg) x)).
        destruct (HLB c y Hdxc Hdc) as [Hlb1 Hlb2].
        assert (Hnot : ~ ((sched (m y) <= now)%N /\ agg (m y) <> NEVER)).
        { destruct (Hst2 c) as (Hpc2 & _ & Hac2). destruct (Hsu c Hdxc Hcne) as [Hcs|Hu].
          - assert (Hin : In c (ls (nd s2 x))).
            { pose proof (wf_par _ _ Hwf2 c x (fun F => F)) as Hw. rewrite Hcc, Hcs in Hw.
              apply Hw; [congruence|discriminate]. }
            pose proof (sorted_head_le (nd s2) (ls (nd s2 x)) c (c_k5 _ Hcore2 x) Hin) as Hle.
            destruct (ls (nd s2 x)) as [|h t]; [destruct Hin|]. rewrite Hac2 in Hle. unfold m in *. lia.
          - destruct (c_k4 _ Hcore2 c) as [_ HU]. rewrite Hcc, Hu in HU. specialize (HU eq_refl). rewrite Hac2 in HU.
            pose proof (proj2 (c_k6 _ (Good_core _ _ Hg) y)) as Hk6. unfold m in *. intros [_ Hn]. apply Hn. lia. }
        unfold m in *. split; [congruence|]. intros [Hle [F|Hn]]; [congruence|]. exfalso. apply Hnot. auto.
    - intro Hpx. unfold resched_up in Hr. destruct (Hst2 x) as (Hpx2 & _). rewrite Hpx2 in Hr.
      destruct (parent (m x)) as [p|] eqn:Hp; [|congruence].
      apply (resched_cur f (nd s2) p x LRecalc m3); auto; congruence.
  Qed.

  (* y fires in a sweep of r at [now]: attached, due, and the root itself or reachable through scheduled lists *)
  Definition fires (m : nmap) (r : nat) (now : N) (y : nat) : Prop :=
    desc m r y /\ (sched (m y) <= now)%N /\ (y = r \/ agg (m y) <> NEVER).

  (* for ANY pulse instant, MUSCLE_TIME_NEVER included: on a freshly recalculated tree
     whose Pulse() callbacks do not restructure anything, the sweep calls Pulse() on exactly the attached nodes y with
     requested time <= now that are the root itself or have a finite aggregate (i.e. are reachable through scheduled
     lists).  For now < MUSCLE_TIME_NEVER the last condition is implied (pulse_exact below); at now =
     MUSCLE_TIME_NEVER it is what distinguishes the code from the naive reading: nodes that asked for "never" and sit
     on unscheduled lists do not fire, a root or an inner node with a finite aggregate that asked for "never" does *)
  Theorem pulse_exact_gen f s r now s' :
    Good nobody (nd s) -> is_root (nd s) r = true -> settled (nd s) r ->
    agg (nd s r) = N.min (sched (nd s r)) (first_sched_agg (nd s) r) ->
    top_pulse pl f s r now = Some s' ->
    Good nobody (nd s') /\
    exists d, evs s' = d ++ evs s /\ NoDup (map ev_node d) /\
      (forall e, In e d -> exists y k, e = EPulse y k now (sched (nd s y)) /\ fires (nd s) r now y) /\
      (forall y, fires (nd s) r now y -> exists k, In (EPulse y k now (sched (nd s y))) d) /\
      (forall y, fires (nd s) r now y ->
                 valid (nd s' y) = false /\ (parent (nd s' y) <> None -> cur (nd s' y) = LRecalc)).
  Proof.
    intros Hg Hr Hset Hagg H.
    pose proof (proj1 (top_pulse_good pl f s r now s' Hg H)) as Hg'. split; [assumption|].
    assert (Hval : forall y, desc (nd s) r y -> valid (nd s y) = true).
    { intros y Hd. now destruct (settled_desc (nd s) r Hg Hset y Hd) as [[? _] _]. }
    assert (Hsu : forall y, desc (nd s) r y -> y <> r -> su (cur (nd s y))).
    { intros y Hd. now destruct (settled_desc (nd s) r Hg Hset y Hd) as [_ ?]. }
    assert (HLB : forall c y, desc (nd s) r c -> desc (nd s) c y ->
                  (agg (nd s c) <= sched (nd s y))%N /\ (agg (nd s c) <= agg (nd s y))%N).
    { intros c y Hc Hy. destruct (settled_desc (nd s) r Hg Hset c Hc) as [Hsc Hsuc].
      assert (Hex : agg (nd s c) = N.min (sched (nd s c)) (first_sched_agg (nd s) c)).
      { destruct (Nat.eq_dec c r) as [->|Hne]; [assumption|]. apply (i_k3 _ (g_inv _ _ Hg)); [apply Hsc|auto]. }
      destruct (agg_lower_bound (nd s) c Hg Hsc Hex y Hy). split; [lia|assumption]. }
    assert (Hreq : forall y, valid (nd s' y) = false -> parent (nd s' y) <> None -> cur (nd s' y) = LRecalc).
    { intros y Hv Hp. destruct (g_k2 _ _ Hg' y (fun F => F) Hv) as [Hc|Hc]; [assumption|].
      destruct (parent (nd s' y)) as [p|] eqn:Hpy; [|congruence].
      exfalso. eapply (i_listed _ (g_inv _ _ Hg')); eauto. }
    unfold top_pulse in H. rewrite Hr in H.
    destruct (N.leb_spec (agg (nd s r)) now) as [Hle|Hgt].
    - destruct (pulse_aux_log pl now f nobody s r s' Hg H) as (d & He & Hv & Hd & Hn & Hc). specialize (Hc pl_pure).
      destruct (pulse_aux_exact now f nobody s r s' Hg Hval Hsu HLB H) as [Hex _].
      pose proof (pulse_aux_pframe now f nobody s r s' Hg H) as (_ & Hfv & _).
      exists d. split; [assumption|]. split; [assumption|]. split; [|split].
      + intros e Hin. destruct (Hd e Hin) as (y & k & -> & Hdue & Hv1 & Hv2). exists y, k.
        split; [reflexivity|].
        assert (Hdy : desc (nd s) r y).
        { destruct (desc_dec (nd s) r y (c_acyc _ (Good_core _ _ Hg))) as [Hdy|Hnd]; [assumption|].
          rewrite (Hfv y Hnd) in Hv2. congruence. }
        split; [assumption|]. now apply (Hex y Hdy).
      + intros y (Hdy & Hdue & Hre). apply Hc; [now apply Hval|]. apply (Hex y Hdy). auto.
      + intros y (Hdy & Hdue & Hre). assert (Hvy : valid (nd s' y) = false) by (apply (Hex y Hdy); auto).
        split; [assumption|now apply Hreq].
    - inversion H; subst s'. exists []. split; [reflexivity|]. split; [constructor|]. split; [intros e []|].
      assert (Hno : forall y, fires (nd s) r now y -> False).
      { intros y (Hdy & Hdue & _). destruct (HLB r y (desc_self _ _) Hdy). lia. }
      split; intros y Hf; exfalso; eauto.
  Qed.

  (* on a freshly recalculated tree (root r settled, its aggregate exact) whose Pulse() callbacks
     do not restructure anything, the manager's pulse sweep at time [now] (< MUSCLE_TIME_NEVER) calls Pulse() on
     EXACTLY the nodes attached below r whose requested time is at or before [now]: each of them once, with
     (now, the time it asked for), no other node; afterwards each of them is invalid and sits on its parent's
     needs-recalc list, i.e. will be asked for its next time by the next recalculation sweep *)
  Theorem pulse_exact f s r now s' :
    (now < NEVER)%N ->
    Good nobody (nd s) -> is_root (nd s) r = true -> settled (nd s) r ->
    agg (nd s r) = N.min (sched (nd s r)) (first_sched_agg (nd s) r) ->
    top_pulse pl f s r now = Some s' ->
    Good nobody (nd s') /\
    exists d, evs s' = d ++ evs s /\ NoDup (map ev_node d) /\
      (forall e, In e d -> exists y k, e = EPulse y k now (sched (nd s y)) /\ desc (nd s) r y /\ (sched (nd s y) <= now)%N) /\
      (forall y, desc (nd s) r y -> (sched (nd s y) <= now)%N -> exists k, In (EPulse y k now (sched (nd s y))) d) /\
      (forall y, desc (nd s) r y -> (sched (nd s y) <= now)%N ->
                 valid (nd s' y) = false /\ (parent (nd s' y) <> None -> cur (nd s' y) = LRecalc)).
  Proof.
    intros Hnow Hg Hr Hset Hagg H.
    destruct (pulse_exact_gen f s r now s' Hg Hr Hset Hagg H) as (Hg' & d & He & Hn & Hd & Hc & Hq).
    assert (Hfin : forall y, desc (nd s) r y -> (sched (nd s y) <= now)%N -> fires (nd s) r now y).
    { intros y Hdy Hdue. split; [assumption|]. split; [assumption|]. right.
      destruct (settled_desc (nd s) r Hg Hset y Hdy) as [Hsy Hsuy].
      assert (Hex : agg (nd s y) = N.min (sched (nd s y)) (first_sched_agg (nd s) y)).
      { destruct (Nat.eq_dec y r) as [->|Hne]; [assumption|]. apply (i_k3 _ (g_inv _ _ Hg)); [apply Hsy|auto]. }
      destruct (agg_lower_bound (nd s) y Hg Hsy Hex y (desc_self _ _)) as [_ Hle]. lia. }
    split; [assumption|]. exists d. split; [assumption|]. split; [assumption|]. split; [|split].
    - intros e Hin. destruct (Hd e Hin) as (y & k & -> & Hdy & Hdue & _). exists y, k. auto.
    - intros y Hdy Hdue. apply Hc. auto.
    - intros y Hdy Hdue. apply Hq. auto.
  Qed.

  (* the boundary made explicit: at now = MUSCLE_TIME_NEVER a node that asked for "never" and has no finite time
     below it does NOT fire although its time is "<= now" -- never-requests are not due even at the end of time *)
  Corollary never_request_not_fired f s r s' y :
    Good nobody (nd s) -> is_root (nd s) r = true -> settled (nd s) r ->
    agg (nd s r) = N.min (sched (nd s r)) (first_sched_agg (nd s) r) ->
    top_pulse pl f s r NEVER = Some s' ->
    desc (nd s) r y -> y <> r -> agg (nd s y) = NEVER ->
    forall k st, ~ In (EPulse y k NEVER st) (firstn (length (evs s') - length (evs s)) (evs s')).
  Proof.
    intros Hg Hr Hset Hagg H Hdy Hyr Hay k st Hin.
    destruct (pulse_exact_gen f s r NEVER s' Hg Hr Hset Hagg H) as (_ & d & He & _ & Hd & _).
    rewrite He in Hin. rewrite app_length in Hin.
    replace (length d + length (evs s) - length (evs s)) with (length d) in Hin by lia.
    rewrite firstn_app, firstn_all, Nat.sub_diag in Hin. simpl in Hin. rewrite app_nil_r in Hin.
    destruct (Hd _ Hin) as (y' & k' & Heq & _ & _ & [Hr'|Hn]); inversion Heq; subst y'; congruence.
  Qed.
End PurePulse.
