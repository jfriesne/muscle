(* C04 -- property theorems only: each is closed by [exact] of a lemma proved elsewhere.
   Model: Refl/{Base,Tree,Matcher,Traverse,Session,Server,Mirror,Params}.v.  Premises: the class MatchLaws (Refl/BaseProofs.v:
   laws of the external wildcard matcher), the history condition wf_run (a session arrives under a fresh
   (host, session-name) pair) and fewer than 2^31-1 SUBSCRIBE: items in the history (uint32/int32 counts). *)
From Coq Require Import List NArith ZArith.
From Muscle Require Import Refl.Base Refl.BaseProofs Refl.Tree Refl.TreeProofs Refl.Matcher Refl.MatcherProofs
     Refl.Traverse Refl.TraverseSpec Refl.Session Refl.Server Refl.ServerProofs Refl.RefcountProofs
     Refl.Concrete Refl.Examples Refl.Mirror Refl.MirrorBase Refl.MirrorCmd Refl.MirrorFrame Refl.MirrorQuiet Refl.MirrorProofs
     Refl.MirrorCheck Refl.MirrorStale Refl.MirrorExamples Refl.Params Refl.ParamsProofs Refl.ParamsExamples.

(* refcount_inv (full): in every reachable state, for every node n and session id s, the node's subscriber table
   holds for s exactly the number of s's subscription paths that match n (GetMatchCount of s's _subscriptions;
   0 for an id that is no attached session). *)
Theorem C04_refcount_inv :
  forall (M : MatchOps) (L : MatchLaws M) (fx : fixes), fx_guard fx = true ->
  forall evs : list event,
  wf_run fx empty_server evs -> small (run_budget evs) ->
  forall (n : node) (s : sid), In n (sv_tree (run fx evs empty_server)) ->
  tbl_get (n_subs n) s = subscribed_count (run fx evs empty_server) s (n_path n).
Proof. exact @refcount_inv. Qed.
Print Assumptions C04_refcount_inv.

(* the subscriber tables hold each session at most once and no zero counts *)
Theorem C04_refcount_tables_ok :
  forall (M : MatchOps) (L : MatchLaws M) (fx : fixes), fx_guard fx = true ->
  forall evs : list event,
  wf_run fx empty_server evs -> small (run_budget evs) ->
  forall n : node, In n (sv_tree (run fx evs empty_server)) -> tbl_ok (n_subs n).
Proof. exact @refcount_tables_ok. Qed.
Print Assumptions C04_refcount_tables_ok.

(* the node tree stays a tree: distinct paths, every ancestor present *)
Theorem C04_tree_wf :
  forall (M : MatchOps) (L : MatchLaws M) (fx : fixes), fx_guard fx = true ->
  forall evs : list event,
  wf_run fx empty_server evs -> small (run_budget evs) -> wf_tree (sv_tree (run fx evs empty_server)).
Proof. exact @tree_wf_inv. Qed.
Print Assumptions C04_tree_wf.

(* traversal_eq_bruteforce for callbacks that go on (the repaired guard): DoTraversal calls back exactly on the nodes
   below the start node that MatchesNode accepts, each once *)
Theorem C04_traversal_visits_exactly_matching :
  forall (M : MatchOps) (L : MatchLaws M) (t : tree) (m : matcher) (root : path) (uf : bool) (n : node),
  wf_tree t -> wf_groups (m_groups m) ->
  (In n (visits t m root uf true) <->
   In n t /\ (exists r, r <> nil /\ n_path n = root ++ r)
   /\ matches_node m (n_path n) (dsel uf n) (length root) = true).
Proof. exact @visits_spec. Qed.
Print Assumptions C04_traversal_visits_exactly_matching.

Theorem C04_traversal_visits_once :
  forall (M : MatchOps) (L : MatchLaws M) (t : tree) (m : matcher) (root : path) (uf : bool),
  wf_tree t -> NoDup (visits t m root uf true).
Proof. exact @visits_nodup. Qed.
Print Assumptions C04_traversal_visits_once.

(* non-vacuity: the premises hold of a concrete matcher instance and a history with overlapping subscriptions *)
Example C04_premises_satisfiable :
  wf_run all_fixed empty_server ex1 /\ small (run_budget ex1).
Proof. exact ex1_premises. Qed.
Example C04_state_nontrivial :
  length (sv_tree ex1_state) = 7
  /\ option_map (fun n => tbl_get (n_subs n) 0%N) (find_node (sv_tree ex1_state) (1 :: 11 :: 21 :: nil)%N) = Some 1%N
  /\ option_map (fun n => tbl_get (n_subs n) 0%N)
       (find_node (sv_tree (run all_fixed (firstn 4 ex1) empty_server)) (1 :: 11 :: 21 :: nil)%N) = Some 2%N.
Proof. exact ex1_nontrivial. Qed.

(* mirror_converges_partial.  Premises besides MatchLaws: the three repairs are in (fx = all_fixed on the repaired tree);
   a session arrives under a fresh (host, name) pair (wf_wrun); fewer than 2^31-1 SUBSCRIBE: items; and, read along the
   run (ok_wrun), for every command of session b in the state it meets:
   * ev_ok o -- quiet flags: every change of the tree by ANOTHER session is announced (no quiet SETDATA / REMOVEDATA; o's own
     may be quiet: they touch its own subtree only) and the observed session o does not subscribe quietly (other sessions
     may): cmd_loud_for; OR b is another session below whose session node none of o's subscription paths reaches
     (hidden_data), then b may use any quiet flag (lemma quiet_frame); batches nested below the server's limit;
   * ev_clean o -- what o itself sends: the SUBSCRIBE: fields of each of its Messages have distinct non-empty paths, the
     keys of an explicit GETDATA are subscriptions it holds at that moment (same path, same filter: cmd_covered, threaded
     through a BATCH; lemma getdata_covered_J), and an unsubscribe is a Message of its own or sits at the head and / or in
     the tail of a BATCH (head ++ middle ++ tail: head and tail hold unsubscribes, own SETDATA / REMOVEDATA and max-items
     changes only, the middle no unsubscribe; the client prunes once, after the BATCH; lemmas tail_fold, prune_J,
     batch_general_world_J).
   Client-mirror rule: Refl/Mirror.v (removals first, then sets; on its own unsubscribe the client drops what its
   remaining subscriptions no longer cover).
   Conclusion, at the quiescent point after ANY such history (any number of sessions coming and going, creation,
   overwrite, recursive and wildcard removal, subscription add / filter change / remove, overlapping subscriptions,
   payload changes across a filter, any max-items-per-update, batches): the client of o holds at every path outside o's
   own nodes exactly the node's current payload if one of o's subscriptions (path and filter) accepts it, and nothing
   otherwise -- none missing, none stale, none extra.
   Quiet set/remove on nodes the observer's subscription paths do reach: C04_mirror_converges_announced below (the
   statement restricted to the paths no quiet command changed).
   Outside the statement: a SUBSCRIBE: or GETDATA between two unsubscribes of one BATCH of the observer,
   a command that mixes quiet and announced changes of the tree seen by the observer, reflect-to-self, ordered indices. *)
Theorem C04_mirror_converges_partial :
  forall (M : MatchOps) (L : MatchLaws M) (fx : fixes),
  fx_guard fx = true -> fx_overlap fx = true -> fx_push fx = true ->
  forall (evs : list event) (o : sid),
  wf_wrun fx empty_world evs -> ok_wrun fx o empty_world evs -> small (run_budget evs) ->
  forall (c : client) (ss : session),
  In c (w_clients (world_run fx evs empty_world)) -> c_id c = o ->
  get_session (w_srv (world_run fx evs empty_world)) o = Some ss ->
  forall q : path, own_node ss q = false ->
  mirror_get (c_mirror c) q = expected (sv_tree (w_srv (world_run fx evs empty_world))) ss q.
Proof. exact @mirror_converges_partial. Qed.
Print Assumptions C04_mirror_converges_partial.

(* mirror_converges_announced: quiet changes that the observer CAN see.  Every event is either as above (ev_ok, ev_clean)
   or a command of another session made of quiet SETDATA / REMOVEDATA only (quiet_other; nobody is told anything).  The
   paths whose payload or existence such commands changed are collected along the run (stale_run); at every other path
   outside o's own nodes the mirror is exact at the quiescent point -- none missing, none stale, none extra there.  (Without
   quiet_other events the collection is empty and this is mirror_converges_partial.) *)
Theorem C04_mirror_converges_announced :
  forall (M : MatchOps) (L : MatchLaws M) (fx : fixes),
  fx_guard fx = true -> fx_overlap fx = true -> fx_push fx = true ->
  forall (o : sid) (evs : list event),
  wf_wrun fx empty_world evs -> oks_wrun fx o empty_world evs -> small (run_budget evs) ->
  forall (c : client) (ss : session),
  In c (w_clients (world_run fx evs empty_world)) -> c_id c = o ->
  get_session (w_srv (world_run fx evs empty_world)) o = Some ss ->
  forall q : path, own_node ss q = false -> pmem q (stale_run fx o empty_world evs nil) = false ->
  mirror_get (c_mirror c) q = expected (sv_tree (w_srv (world_run fx evs empty_world))) ss q.
Proof. exact @mirror_converges_announced. Qed.
Print Assumptions C04_mirror_converges_announced.

(* the same for histories as they are on the wire (Refl/Params.v): PR_COMMAND_REMOVEPARAMETERS works on parameter NAMES, so
   an unsubscribe under a spelling the client did not subscribe with ("SUBSCRIBE:x" for "SUBSCRIBE:/*/*/x") removes nothing;
   [pworld_run] threads every session's SUBSCRIBE: parameter names and lowers each command to what Server.v executes. *)
Theorem C04_mirror_converges_wire :
  forall (M : MatchOps) (L : MatchLaws M) (fx : fixes),
  fx_guard fx = true -> fx_overlap fx = true -> fx_push fx = true ->
  forall (evs : list event) (o : sid),
  wf_prun fx empty_pworld evs -> ok_prun fx o empty_pworld evs -> small (run_budget evs) ->
  let w := pw_world (pworld_run fx evs empty_pworld) in
  forall (c : client) (ss : session),
  In c (w_clients w) -> c_id c = o -> get_session (w_srv w) o = Some ss ->
  forall q : path, own_node ss q = false ->
  mirror_get (c_mirror c) q = expected (sv_tree (w_srv w)) ss q.
Proof. exact @mirror_converges_wire. Qed.
Print Assumptions C04_mirror_converges_wire.

(* ... and with premises that are tests of the events as they are on the wire (MirrorCheck.v: ev_ok_b -- no quiet flag on a
   change of the tree by another session, no quiet SUBSCRIBE: of o; ev_clean_b -- o sends no explicit GETDATA, distinct
   non-empty SUBSCRIBE: paths per Message, unsubscribes at the head / in the tail of a BATCH) *)
Theorem C04_mirror_converges_wire_checked :
  forall (M : MatchOps) (L : MatchLaws M) (fx : fixes),
  fx_guard fx = true -> fx_overlap fx = true -> fx_push fx = true ->
  forall (evs : list event) (o : sid),
  wf_prun fx empty_pworld evs -> forallb (ev_ok_b o) evs = true -> forallb (ev_clean_b o) evs = true ->
  small (run_budget evs) ->
  let w := pw_world (pworld_run fx evs empty_pworld) in
  forall (c : client) (ss : session),
  In c (w_clients w) -> c_id c = o -> get_session (w_srv w) o = Some ss ->
  forall q : path, own_node ss q = false ->
  mirror_get (c_mirror c) q = expected (sv_tree (w_srv w)) ss q.
Proof. exact (fun M L fx Hg Ho Hp evs o Hwf Hok Hcl => @mirror_converges_wire M L fx Hg Ho Hp evs o Hwf (ok_prun_of_checks fx o evs empty_pworld Hok Hcl)). Qed.
Print Assumptions C04_mirror_converges_wire_checked.

(* mirror_converges_announced on the wire (parameter names): the conditions are read off the lowered history *)
Theorem C04_mirror_converges_wire_announced :
  forall (M : MatchOps) (L : MatchLaws M) (fx : fixes),
  fx_guard fx = true -> fx_overlap fx = true -> fx_push fx = true ->
  forall (o : sid) (evs : list event),
  let evs' := lower_run fx empty_pworld evs in
  wf_wrun fx empty_world evs' -> oks_wrun fx o empty_world evs' -> small (run_budget evs') ->
  let w := pw_world (pworld_run fx evs empty_pworld) in
  forall (c : client) (ss : session),
  In c (w_clients w) -> c_id c = o -> get_session (w_srv w) o = Some ss ->
  forall q : path, own_node ss q = false -> pmem q (stale_run fx o empty_world evs' nil) = false ->
  mirror_get (c_mirror c) q = expected (sv_tree (w_srv w)) ss q.
Proof. exact @mirror_converges_wire_announced. Qed.
Print Assumptions C04_mirror_converges_wire_announced.

(* the repairs are necessary: with any one switched off, a clean history violates the statement
   (witnesses replayed on the real server: findings F12, F37, F38) *)
Theorem C04_mirror_refuted_without_F12_repair :
  premises_b (mkFixes false true true) ex_f12 0%N = true
  /\ holds_at (world_run (mkFixes false true true) ex_f12 empty_world) 0%N (1 :: 11 :: 30 :: 31 :: nil)%N = false
  /\ holds_at (world_run all_fixed ex_f12 empty_world) 0%N (1 :: 11 :: 30 :: 31 :: nil)%N = true.
Proof. exact mirror_refuted_without_F12_repair. Qed.
Print Assumptions C04_mirror_refuted_without_F12_repair.

Theorem C04_mirror_refuted_without_F37_repair :
  premises_b (mkFixes true false true) ex_f37 0%N = true
  /\ holds_at (world_run (mkFixes true false true) ex_f37 empty_world) 0%N (1 :: 11 :: 21 :: nil)%N = false
  /\ holds_at (world_run all_fixed ex_f37 empty_world) 0%N (1 :: 11 :: 21 :: nil)%N = true.
Proof. exact mirror_refuted_without_F37_repair. Qed.
Print Assumptions C04_mirror_refuted_without_F37_repair.

Theorem C04_mirror_refuted_without_F38_repair :
  premises_b (mkFixes true true false) ex_f38 0%N = true
  /\ holds_at (world_run (mkFixes true true false) ex_f38 empty_world) 0%N (1 :: 11 :: 21 :: nil)%N = false
  /\ holds_at (world_run all_fixed ex_f38 empty_world) 0%N (1 :: 11 :: 21 :: nil)%N = true.
Proof. exact mirror_refuted_without_F38_repair. Qed.
Print Assumptions C04_mirror_refuted_without_F38_repair.

(* non-vacuity of mirror_converges_partial: a history with overlapping subscriptions, filters, payload changes across a
   filter, a batch, an unsubscribe and a departure satisfies all premises, for two observers, and is non-trivial *)
Example C04_mirror_premises_satisfiable :
  premises_b all_fixed exm 0%N = true /\ premises_b all_fixed exm 2%N = true.
Proof. exact exm_premises. Qed.
Example C04_mirror_premises_imply_hypotheses :
  forall (M : MatchOps) (L : MatchLaws M) (fx : fixes) evs o, premises_b fx evs o = true ->
  wf_wrun fx empty_world evs /\ ok_wrun fx o empty_world evs /\ small (run_budget evs).
Proof. exact @premises_b_spec. Qed.
(* ... and by a history in which another session subscribes quietly and the observer sends explicit GETDATA for what it is
   subscribed to, alone and inside a BATCH *)
Example C04_mirror_premises_satisfiable_getdata :
  wf_wrun all_fixed empty_world exg /\ ok_wrun all_fixed 0%N empty_world exg /\ small (run_budget exg).
Proof. exact exg_premises. Qed.
Example C04_mirror_getdata_nontrivial :
  holds_at (world_run all_fixed exg empty_world) 0%N (1 :: 11 :: 21 :: nil)%N = true
  /\ option_map (fun c => length (c_mirror c)) (find (fun c => N.eqb (c_id c) 0%N) (w_clients (world_run all_fixed exg empty_world))) = Some 2%nat.
Proof. exact exg_nontrivial. Qed.

(* non-vacuity of mirror_converges_wire, and the parameter-name rule on a concrete history *)
Example C04_wire_premises_satisfiable :
  wf_prun_b all_fixed empty_pworld exw = true /\ ok_prun_b all_fixed 0%N empty_pworld exw = true.
Proof. exact wire_premises_satisfiable. Qed.
Example C04_wire_premises_imply_hypotheses :
  forall (fx : fixes) evs pw, wf_prun_b fx pw evs = true -> wf_prun fx pw evs.
Proof. exact wf_prun_b_spec. Qed.
Example C04_wire_ok_check_implies_hypothesis :
  forall (fx : fixes) o evs pw, ok_prun_b fx o pw evs = true -> ok_prun fx o pw evs.
Proof. exact ok_prun_b_spec. Qed.

(* ... and by a history in which a session the observer cannot see sets and removes quietly (quiet_frame) *)
Example C04_mirror_premises_satisfiable_quiet :
  wf_wrun all_fixed empty_world exq /\ ok_wrun all_fixed 0%N empty_world exq /\ small (run_budget exq).
Proof. exact exq_premises. Qed.
Example C04_mirror_quiet_nontrivial :
  holds_at (world_run all_fixed exq empty_world) 0%N (1 :: 11 :: 21 :: nil)%N = true
  /\ holds_at (world_run all_fixed exq empty_world) 0%N (1 :: 12 :: 21 :: nil)%N = true
  /\ option_map (fun c => length (c_mirror c)) (find (fun c => N.eqb (c_id c) 0%N) (w_clients (world_run all_fixed exq empty_world))) = Some 1%nat
  /\ length (sv_tree (w_srv (world_run all_fixed exq empty_world))) = 7%nat.
Proof. exact exq_nontrivial. Qed.

(* ... and by a history in which the observer switches subscriptions inside one BATCH (SUBSCRIBE: the new one, unsubscribe
   the old one) *)
Example C04_mirror_premises_satisfiable_batch_unsubscribe : premises_b all_fixed exb 0%N = true.
Proof. exact exb_premises. Qed.
Example C04_mirror_batch_unsubscribe_nontrivial :
  holds_at (world_run all_fixed exb empty_world) 0%N (1 :: 11 :: 21 :: nil)%N = true
  /\ holds_at (world_run all_fixed exb empty_world) 0%N (1 :: 11 :: 22 :: nil)%N = true
  /\ option_map (fun c => length (c_mirror c)) (find (fun c => N.eqb (c_id c) 0%N) (w_clients (world_run all_fixed (firstn 4 exb) empty_world))) = Some 2%nat
  /\ option_map (fun c => length (c_mirror c)) (find (fun c => N.eqb (c_id c) 0%N) (w_clients (world_run all_fixed exb empty_world))) = Some 1%nat.
Proof. exact exb_nontrivial. Qed.
(* ... and the other order (unsubscribe the old one, SUBSCRIBE: the new one, unsubscribe one more) *)
Example C04_mirror_premises_satisfiable_batch_unsubscribe_first : premises_b all_fixed exu 0%N = true.
Proof. exact exu_premises. Qed.
Example C04_mirror_batch_unsubscribe_first_nontrivial :
  holds_at (world_run all_fixed exu empty_world) 0%N (1 :: 11 :: 21 :: nil)%N = true
  /\ holds_at (world_run all_fixed exu empty_world) 0%N (1 :: 11 :: 22 :: nil)%N = true
  /\ holds_at (world_run all_fixed exu empty_world) 0%N (1 :: 11 :: 23 :: nil)%N = true
  /\ option_map (fun c => length (c_mirror c)) (find (fun c => N.eqb (c_id c) 0%N) (w_clients (world_run all_fixed (firstn 4 exu) empty_world))) = Some 3%nat
  /\ option_map (fun c => length (c_mirror c)) (find (fun c => N.eqb (c_id c) 0%N) (w_clients (world_run all_fixed exu empty_world))) = Some 1%nat.
Proof. exact exu_nontrivial. Qed.

(* non-vacuity of mirror_converges_announced: session 1 changes ab and creates ac quietly where the observer watches; the
   mirror is exact at ad (changed loudly afterwards) and NOT at ab, ac: the restriction to the uncollected paths is needed *)
Example C04_announced_premises_satisfiable :
  wf_wrun_b all_fixed empty_world exs = true /\ forallb (ev_oks_b 0%N) exs = true
  /\ stale_run all_fixed 0%N empty_world exs nil = ((1 :: 11 :: 21 :: nil) :: (1 :: 11 :: 21 :: nil) :: (1 :: 11 :: 22 :: nil) :: nil)%N.
Proof. exact exs_premises. Qed.
Example C04_announced_checks_imply_hypotheses :
  forall (M : MatchOps) (L : MatchLaws M) (fx : fixes) o evs w, forallb (ev_oks_b o) evs = true -> oks_wrun fx o w evs.
Proof. exact @oks_wrun_b_spec. Qed.
Example C04_announced_nontrivial :
  holds_at (world_run all_fixed exs empty_world) 0%N (1 :: 11 :: 20 :: nil)%N = true
  /\ holds_at (world_run all_fixed exs empty_world) 0%N (1 :: 11 :: 21 :: nil)%N = false
  /\ holds_at (world_run all_fixed exs empty_world) 0%N (1 :: 11 :: 22 :: nil)%N = false
  /\ option_map (fun c => length (c_mirror c)) (find (fun c => N.eqb (c_id c) 0%N) (w_clients (world_run all_fixed exs empty_world))) = Some 2%nat.
Proof. exact exs_nontrivial. Qed.
