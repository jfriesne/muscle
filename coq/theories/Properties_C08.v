(* C08 -- all Message implementations agree on one wire format, byte for byte.
   Property theorems only: each is closed by [exact] of a lemma proved under Msg/.

   [spec_msg] (Msg/MsgSpec.v) is the wire format written from the documentation alone: uniform over the list
   of a field's items, ignorant of the C++ representation and of the constants translated from /repo (it
   uses the four-character codes and the documented item widths).  [flatten] is the code-shaped model of
   Message::Flatten tied to the C++ by the C01 correspondence run.  The C and Python codecs are not modelled:
   they are compared with [spec_msg] and with each other by the differential run of checks/c08.py. *)
From Coq Require Import List NArith.
From Muscle Require Import Gen.Consts Msg.MsgDefs Msg.MsgModel Msg.MsgSpec Msg.MsgBytesProofs Msg.MsgSizeProofs
  Msg.MsgRoundTrip Msg.MsgReprProofs Msg.MsgSpecProofs Msg.MsgExamples.
Local Open Scope N_scope.

(* 1. the code-shaped model writes exactly the documented layout, for every well-formed Message: including the
   three historical special cases (no count word for Message fields, 1-byte bools, count + length prefixes for
   strings and raw data) and whichever of the two writers (inline item / array object) the field state selects *)
Theorem C08_flatten_is_spec : forall m : msg, wf_msg m -> flatten m = spec_msg m.
Proof. exact flatten_is_spec. Qed.
Print Assumptions C08_flatten_is_spec.

(* 2. the documented layout is a function of the content only *)
Theorem C08_spec_repr_indep : forall m : msg, spec_msg (content_msg m) = spec_msg m.
Proof. exact spec_repr_indep. Qed.
Print Assumptions C08_spec_repr_indep.

(* 3. the parser model accepts the documented layout and recovers the Message *)
Theorem C08_spec_roundtrip : forall m : msg, wf m -> unflatten (spec_msg m) = Ok (rt m).
Proof. exact spec_roundtrip. Qed.
Print Assumptions C08_spec_roundtrip.

(* 4. the bytes determine the content: two well-formed Messages with equal bytes have equal content *)
Theorem C08_spec_injective : forall m n : msg, wf m -> wf n -> spec_msg m = spec_msg n ->
  content_msg (strip_msg m) = content_msg (strip_msg n).
Proof. exact spec_injective. Qed.
Print Assumptions C08_spec_injective.

(* 5. the protocol and encoding constants translated from /repo are the documented four-character codes (the
   type codes: Msg/MsgSpecProofs.type_codes_documented), and the type switch of
   Message.cpp classifies type codes as documented with the documented item widths *)
Theorem C08_constants_documented :
  c_CURRENT_PROTOCOL_VERSION = s_PM00 /\ c_OLDEST_SUPPORTED_PROTOCOL_VERSION = s_PM00 /\
  c_MUSCLE_MESSAGE_ENCODING_DEFAULT = s_Enc0.
Proof. exact protocol_constants_documented. Qed.
Print Assumptions C08_constants_documented.

Theorem C08_type_switch_documented : forall tc : N, spec_class tc = class_of_ft (ftype_of_tc tc).
Proof. exact spec_class_ft. Qed.
Print Assumptions C08_type_switch_documented.

Theorem C08_item_widths_documented : forall ft : ftype, ft_fixed ft = true -> class_of_ft ft = SFixed (cpp_size ft).
Proof. exact class_width_ok. Qed.
Print Assumptions C08_item_widths_documented.

Theorem C08_constant_copies_agree :
  c_mini_CURRENT_PROTOCOL_VERSION = c_CURRENT_PROTOCOL_VERSION /\
  c_mini_OLDEST_SUPPORTED_PROTOCOL_VERSION = c_OLDEST_SUPPORTED_PROTOCOL_VERSION /\
  c_micro_CURRENT_PROTOCOL_VERSION = c_CURRENT_PROTOCOL_VERSION /\
  c_micro_OLDEST_SUPPORTED_PROTOCOL_VERSION = c_OLDEST_SUPPORTED_PROTOCOL_VERSION /\
  c_py_CURRENT_PROTOCOL_VERSION = c_CURRENT_PROTOCOL_VERSION /\
  c_minigw_ENCODING_DEFAULT = c_MUSCLE_MESSAGE_ENCODING_DEFAULT /\
  c_microgw_ENCODING_DEFAULT = c_MUSCLE_MESSAGE_ENCODING_DEFAULT /\
  c_py_ENCODING_DEFAULT = c_MUSCLE_MESSAGE_ENCODING_DEFAULT.
Proof. exact protocol_constant_copies_agree. Qed.
Print Assumptions C08_constant_copies_agree.

Theorem C08_python_type_codes_agree :
  c_py_B_BOOL_TYPE = c_B_BOOL_TYPE /\ c_py_B_DOUBLE_TYPE = c_B_DOUBLE_TYPE /\ c_py_B_FLOAT_TYPE = c_B_FLOAT_TYPE /\
  c_py_B_INT64_TYPE = c_B_INT64_TYPE /\ c_py_B_INT32_TYPE = c_B_INT32_TYPE /\ c_py_B_INT16_TYPE = c_B_INT16_TYPE /\
  c_py_B_INT8_TYPE = c_B_INT8_TYPE /\ c_py_B_MESSAGE_TYPE = c_B_MESSAGE_TYPE /\ c_py_B_POINTER_TYPE = c_B_POINTER_TYPE /\
  c_py_B_POINT_TYPE = c_B_POINT_TYPE /\ c_py_B_RECT_TYPE = c_B_RECT_TYPE /\ c_py_B_STRING_TYPE = c_B_STRING_TYPE /\
  c_py_B_RAW_TYPE = c_B_RAW_TYPE /\ c_py_B_ANY_TYPE = c_B_ANY_TYPE.
Proof. exact python_type_codes_agree. Qed.
Print Assumptions C08_python_type_codes_agree.

(* 6. the 8-byte stream frame *)
Theorem C08_unframe_frame : forall (enc : N) (body rest : bytes),
  len body < two32 -> enc < two32 -> unframe (frame enc body ++ rest) = Some (enc, body, rest).
Proof. exact unframe_frame. Qed.
Print Assumptions C08_unframe_frame.

(* non-vacuity *)
Example C08_ex_wf : wf ex_msg.
Proof. exact ex_wf. Qed.
Example C08_ex_spec : flatten ex_msg = spec_msg ex_msg /\ rt ex_msg <> ex_msg.
Proof. exact (conj (flatten_is_spec ex_msg (proj1 ex_wf)) ex_rt_differs). Qed.
