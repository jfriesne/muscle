(* C11 -- "can always complete": from every reachable state in which the internal thread is alive there is a finite
   continuation, made of steps of the internal thread and of threads that owe it a signal only, at whose end the thread
   has finished or has received everything that was queued for it and sits in its blocking wait.  Consequences: every
   queued Message can be delivered, and a shutdown (NULL Message queued) can always run to completion -- no reachable
   state is a trap.  (The safety-form theorems of ThreadQProofs say a step is enabled; this says the steps lead
   somewhere, by a measure that every such step decreases.)  With the same measure: on every weakly fair infinite
   execution the shutdown does complete and the Message at the head of the queue is received (fair_eventually).
   StartInternalThread as repaired.
   Premise [Hnoself]: the subclass's MessageReceivedFromOwner sends replies only, no Messages to the internal thread
   itself -- a thread that keeps feeding its own queue need never drain it. *)
From Coq Require Import List Arith Bool Lia NArith.
From Muscle Require Import Conc.ThreadQ Conc.ThreadQWf Conc.ThreadQWake Conc.ThreadQProofs.
Import ListNotations.

Section Progress.
Variable absorb_n : nat.
Variable no_limit : N.
Variable react : nat -> list (chanid * msg) * bool.
Hypothesis Hnl : (0 < no_limit)%N.
Hypothesis Hnoself : forall x, Forall (fun cm => fst cm = CO) (fst (react x)).
Variables smode emode : bool.

Notation Step := (Step false absorb_n no_limit react).
Notation step := (step false absorb_n no_limit react).
Notation sys_step := (sys_step false absorb_n no_limit react).
Notation R := (reachable_if false absorb_n no_limit react any_label smode emode).

Definition rsn (x : nat) : nat := length (fst (react x)).
Definition quits (x : nat) : bool := snd (react x).

(* steps the internal thread needs, from the top of WaitForNextMessageAux(w), to work through the queue q.  The numbers
   count atomic steps of the model: absorb, critical section and the return are 3 (2 when the queue is empty and the
   thread goes on to block; 6 in the default loop after a socket wake-up, which polls, returns B_TIMED_OUT and comes
   round once more); a NULL Message adds the exit, 4 in all; every reply is 2 (append, signal); 1 for the step back to
   the top of the loop or out of it *)
Fixpoint go (evd : bool) (w : ThreadQ.wake) (q : list msg) : nat :=
  match q with
  | [] => if evd then 2 else match w with WPoll => 6 | _ => 2 end
  | None :: _ => 4
  | Some x :: r => 3 + 2 * rsn x + (if quits x then 1 else 1 + go evd (if evd then WPoll else WNever) r)
  end.

Definition final (evd quit : bool) (q : list msg) : nat :=
  if quit then 1 else 1 + go evd (if evd then WPoll else WNever) q.

(* from the top of the loop: the event loop takes 4 steps to its first poll, the default loop 1 *)
Definition wloop (evd : bool) (q : list msg) : nat := if evd then 4 + go evd WPoll q else 1 + go evd WNever q.

Definition W (sockets evd : bool) (l : local) (q : list msg) : nat :=
  match l_pc l, l_k l with
  | PIExit, _ => 1
  | PRecvAbsorb CI w, _ => go evd w q
  | PRecvCS CI w, _ => go evd w q - 1
  | PRecvGot CI None _, _ => 2
  | PRecvGot CI (Some x) _, _ => 1 + 2 * rsn x + final evd (quits x) q
  | PSendCS CO _, [KReplies rs qt] => 2 + 2 * length rs + final evd qt q
  | PSendSig CO _, [KReplies rs qt] => 1 + 2 * length rs + final evd qt q
  | PILoop, _ => wloop evd q
  | PIAfterStartup, _ => 1 + wloop evd q
  | PIStartupCS, _ => 2 + wloop evd q
  | PIEntry, _ => 3 + wloop evd q
  | PIEvPoll, _ => 1 + go evd WPoll q
  | PIEvWait, _ => 2 + go evd WPoll q
  | PIEvLoop, _ => 3 + go evd WPoll q
  | PRecvNone CI WPoll, _ => if evd then 4 + go evd WPoll q else 2 + go evd WNever q
  | PRecvNone CI w, _ => 2 + go evd (if sockets then WPoll else w) q
  | PRecvPark CI w, _ => 1 + go evd (if sockets then WPoll else w) q
  | _, _ => 0
  end.

(* how far StartInternalThread is from having signalled *)
Definition odist (p : pc) : nat := match p with PStartSpawned => 3 | PStartCheck => 2 | _ => 1 end.

(* what a thread that is committed to block still waits for: nothing if its wait is satisfiable, else the signal that
   StartInternalThread (or a sender: distance 1) has yet to send *)
Definition pen (s : sys) : nat :=
  if will_look (g_evd (s_g s)) (l_pc (g_il (s_g s))) then 0
  else if readable (s_g s) CI then 0 else odist (l_pc (s_l s 0)).

Definition mu (s : sys) : nat :=
  W (g_sockets (s_g s)) (g_evd (s_g s)) (g_il (s_g s)) (c_q (g_ci (s_g s))) + pen s.

Lemma go_ge2 : forall evd w q, 2 <= go evd w q.
Proof. intros evd w q. destruct q as [|[x|] r]; simpl; [destruct evd, w; lia | lia | lia]. Qed.

(* the internal thread, or a thread that owes it a signal *)
Definition helper (s : sys) (lab : label) : Prop :=
  lab = LStep I CRun \/ exists t, lab = LStep (U t) CRun /\ is_pend_i (l_pc (s_l s t)) = true.

Inductive canreach (P : sys -> Prop) : sys -> Prop :=
| cr_here : forall s, P s -> canreach P s
| cr_step : forall s lab s' ev, helper s lab -> sys_step s lab = Some (s', ev) -> canreach P s' -> canreach P s.

Lemma canreach_weaken : forall (P Q : sys -> Prop) s, (forall x, P x -> Q x) -> canreach P s -> canreach Q s.
Proof. intros P Q s H C. induction C; [apply cr_here; auto | eapply cr_step; eauto]. Qed.

Lemma canreach_steps : forall P s, canreach P s -> exists s', steps_if false absorb_n no_limit react any_label s s' /\ P s'.
Proof.
  intros P s C. induction C.
  - exists s. split; [apply steps_refl | assumption].
  - destruct IHC as (s2 & St & Ps). exists s2. split; [eapply steps_cons; eauto; reflexivity | assumption].
Qed.

(* the state the continuation ends in: the thread has finished, or has nothing left to receive and is about to block *)
Definition drained (s : sys) : Prop :=
  g_ist (s_g s) = IExited \/
  (g_ist (s_g s) = ILive /\ c_q (g_ci (s_g s)) = [] /\ will_look (g_evd (s_g s)) (l_pc (g_il (s_g s))) = false).

Lemma pen_zero : forall s, will_look (g_evd (s_g s)) (l_pc (g_il (s_g s))) = true -> pen s = 0.
Proof. intros s H. unfold pen. rewrite H. reflexivity. Qed.

Lemma pen_mono : forall s s',
  will_look (g_evd (s_g s)) (l_pc (g_il (s_g s))) = false ->
  (readable (s_g s) CI = true -> readable (s_g s') CI = true) ->
  l_pc (s_l s' 0) = l_pc (s_l s 0) -> pen s' <= pen s.
Proof.
  intros s s' Hw Hr Hp. unfold pen. rewrite Hw, Hp.
  destruct (will_look (g_evd (s_g s')) (l_pc (g_il (s_g s')))); [lia|].
  destruct (readable (s_g s) CI) eqn:E; [rewrite Hr by reflexivity; lia|].
  destruct (readable (s_g s') CI); lia.
Qed.

Definition all_co (rs : list (chanid * msg)) : Prop := Forall (fun cm => fst cm = CO) rs.

(* the internal thread is sending replies only *)
Definition replies_only (l : local) : Prop :=
  match l_pc l, l_k l with
  | PSendCS c _, [KReplies rs _] | PSendSig c _, [KReplies rs _] => c = CO /\ all_co rs
  | _, _ => True
  end.

Lemma ro_not_send_ci : forall l, ipc_ok l -> replies_only l -> forall m, l_pc l <> PSendCS CI m.
Proof.
  intros [p k] Hi Hro m E. simpl in E. subst p. unfold ipc_ok in Hi. simpl in Hi. destr_k k.
  destruct Hro as [Hro _]. discriminate Hro.
Qed.

Lemma next_reply_ro : forall evd rs qt p k' e', all_co rs -> next_reply evd rs qt [] = (p, k', e') -> replies_only (mkL p k').
Proof.
  intros evd rs qt p k' e' F H. unfold next_reply in H. destruct rs as [|[c m] rest]; inv H.
  - destruct qt; [|destruct evd]; exact Coq.Init.Logic.I.
  - inversion F; subst. unfold replies_only. simpl in *. auto.
Qed.

Lemma W_next_reply : forall sk evd rs qt p k' e' q, all_co rs ->
  next_reply evd rs qt [] = (p, k', e') -> W sk evd (mkL p k') q < 1 + 2 * length rs + final evd qt q.
Proof.
  intros sk evd rs qt p k' e' q F H. unfold next_reply in H. destruct rs as [|[c m] rest]; inv H.
  - destruct qt, evd; unfold final, W, wloop; simpl; lia.
  - inversion F; subst. simpl in *. subst c. unfold W. simpl. lia.
Qed.

Lemma dispatch_ro : forall evd r p k' e', dispatch react evd r [] = (p, k', e') -> replies_only (mkL p k').
Proof.
  intros evd r p k' e' H. unfold dispatch in H.
  destruct r as [ | [y|] n | | | | | | ]; try (inv H; try destruct evd; exact Coq.Init.Logic.I).
  destruct (next_reply evd (fst (react y)) (snd (react y)) []) as [[p1 k1] e1] eqn:En. inv H.
  eapply next_reply_ro; [apply Hnoself | exact En].
Qed.

Lemma Step_ro : forall c g l g' l' ev, ipc_ok l -> replies_only l -> Step c g l g' l' ev -> replies_only l'.
Proof.
  intros c g l g' l' ev Hi Hro HS.
  inv_int HS Hi; try exact Coq.Init.Logic.I;
    try (unfold replies_only in *; simpl in *; tauto);
    try (unfold replies_only in Hro; simpl in Hro; destruct Hro; discriminate);
    match goal with Hr : ret _ _ _ _ = _ |- _ =>
      first [ eapply dispatch_ro; exact Hr
            | eapply next_reply_ro; [|exact Hr]; unfold replies_only in Hro; simpl in Hro; tauto ] end.
Qed.

(* the measure over an accounting queue qh: the steps that do not look at the real queue get closer whatever is taken
   to lie ahead *)
Definition mua (qh : list msg) (s : sys) : nat :=
  W (g_sockets (s_g s)) (g_evd (s_g s)) (g_il (s_g s)) qh + pen s.

Lemma recv_cs_dec : forall p, (exists w, p = PRecvCS CI w) \/ (forall w, p <> PRecvCS CI w).
Proof. intros p. destruct p; try (right; intros w0 H; discriminate). destruct c; [left; eauto | right; intros w0 H; discriminate]. Qed.

Lemma int_step_W : forall g l g' l' ev, ipc_ok l -> replies_only l -> (forall w, l_pc l <> PRecvCS CI w) ->
  (g_sockets g = true -> g_alloc g = true /\ g_iopen g = true) ->
  Step CRun g l g' l' ev ->
  g_ist g' = IExited \/
  (l_pc l <> PIExit /\ forall q, W (g_sockets g) (g_evd g) l' q < W (g_sockets g) (g_evd g) l q).
Proof.
  intros g l g' l' ev Hi Hro Hncs Hsock Hx.
  pose proof (Step_const _ _ _ _ Hx) as [_ Hc2].
  inv_int Hx Hi;
    try (left; reflexivity);
    right; (split; [discriminate|]); intros q.
  - (* S_SendCS: a reply is appended *)
    assert (x = CO) by (unfold replies_only in Hro; simpl in Hro; tauto). subst x.
    unfold W, final; simpl; lia.
  - (* S_SendSig_first: its signal *)
    destruct Hro as [-> Hco]. simpl in *.
    eapply Nat.lt_le_trans; [eapply W_next_reply; [exact Hco | rewrite <- Hc2; eassumption]|]. unfold W; simpl; lia.
  - (* S_SendSig_not *)
    destruct Hro as [-> Hco]. simpl in *.
    eapply Nat.lt_le_trans; [eapply W_next_reply; [exact Hco | eassumption]|]. unfold W; simpl; lia.
  - (* S_Absorb *)
    pose proof (go_ge2 (g_evd g) w q). unfold W; simpl; lia.
  - (* S_RecvCS_none *) exfalso. eapply Hncs; reflexivity.
  - (* S_RecvCS_some *) exfalso. eapply Hncs; reflexivity.
  - (* S_RecvGot: a Message is dispatched *)
    match goal with Hr : ret _ _ _ _ = _ |- _ => simpl in Hr; unfold dispatch in Hr; rename Hr into HR end.
    destruct m as [y|].
    + destruct (next_reply (g_evd g') (fst (react y)) (snd (react y)) []) as [[p1 k1] e1] eqn:En. inv HR.
      eapply Nat.lt_le_trans; [eapply W_next_reply; [apply Hnoself | exact En]|]. unfold W, rsn, quits; simpl; lia.
    + inv HR. unfold W; simpl; lia.
  - (* S_RecvNone_poll: the poll found nothing *)
    simpl in *.
    match goal with Hr : (_, _, _) = (_, _, _) |- _ => inv Hr end.
    destruct (g_evd g'); unfold W, wloop; simpl; lia.
  - (* S_RecvNone_park: about to block *)
    destruct w; try congruence; unfold W; simpl; lia.
  - (* S_RecvNone_bad: no socket, cannot happen while the thread is alive *)
    exfalso.
    match goal with Hs : g_sockets _ = true, Hf : fd_ok _ CI = false |- _ =>
      destruct (Hsock Hs) as [Ha Ho]; unfold fd_ok in Hf; rewrite Hs, Ha, Ho in Hf; discriminate end.
  - (* S_Park_wake_sock *)
    match goal with Hs : g_sockets _ = true |- _ => rewrite Hs end. unfold W; simpl; lia.
  - (* S_Park_wake_wc *)
    match goal with Hs : g_sockets _ = false |- _ => rewrite Hs end. unfold W; simpl; lia.
  - (* S_IEntry *) unfold W; simpl; lia.
  - (* S_IStartupCS_empty *) unfold W; simpl; lia.
  - (* S_IStartupCS_signal *) unfold W; simpl; lia.
  - (* S_IAfterStartup *) unfold W; simpl; lia.
  - (* S_ILoop_default: into WaitForNextMessageFromOwner *)
    match goal with He : g_evd _ = false |- _ => rewrite He end. unfold W, wloop; simpl; lia.
  - (* S_ILoop_evd *)
    match goal with He : g_evd _ = true |- _ => rewrite He end. unfold W, wloop; simpl; lia.
  - (* S_IEvLoop_park *) unfold W; simpl; lia.
  - (* S_IEvLoop_exit *) unfold W; simpl; lia.
  - (* S_IEvWait *) unfold W; simpl; lia.
  - (* S_IEvPoll *) pose proof (go_ge2 (g_evd g') WPoll q). unfold W; simpl; lia.
  - (* S_Park_wake_io: woken by a user socket, not the internal thread *)
    exfalso.
    match goal with Hw : wakeable _ CI = true, Hr : readable _ CI = false |- _ => rewrite wakeable_CI in Hw; congruence end.
Qed.

Lemma pen_int_step : forall s c g' l' ev, ipc_ok (g_il (s_g s)) -> (forall w, l_pc (g_il (s_g s)) <> PRecvCS CI w) ->
  Step c (s_g s) (g_il (s_g s)) g' l' ev -> pen (mkS (set_il l' g') (s_l s)) <= pen s.
Proof.
  intros s c g' l' ev Hi Hncs Hx.
  destruct (Step_const _ _ _ _ Hx) as [_ Hc2].
  destruct (int_step_look _ _ _ Hnl Hi Hx) as [Look | [(K4 & _ & _ & K3) | [[w E] _]]].
  - rewrite pen_zero; [lia | simpl; rewrite Hc2; exact Look].
  - apply pen_mono; auto.
  - exfalso. eapply Hncs; eauto.
Qed.

Lemma int_step_any : forall s, wf smode emode s -> g_ist (s_g s) = ILive -> blocked (s_g s) (g_il (s_g s)) = false ->
  replies_only (g_il (s_g s)) -> (forall w, l_pc (g_il (s_g s)) <> PRecvCS CI w) ->
  exists s' ev, sys_step s (LStep I CRun) = Some (s', ev) /\
    (g_ist (s_g s') = IExited \/
     (g_ist (s_g s') = ILive /\ c_q (g_ci (s_g s')) = c_q (g_ci (s_g s)) /\ c_rcvd (g_ci (s_g s')) = c_rcvd (g_ci (s_g s)) /\
      forall qh, mua qh s' < mua qh s)).
Proof.
  intros s W0 Hl Hb Hro Hncs.
  destruct (step_enabled false absorb_n no_limit react _ _ Hb) as [[[g' l'] e] Hx].
  exists (mkS (set_il l' g') (s_l s)), e. split; [simpl; rewrite Hl, Hx; reflexivity|].
  pose proof (wf_ipc _ _ _ W0 Hl) as Hi.
  apply step_spec in Hx.
  destruct (int_step_W _ _ _ _ _ Hi Hro Hncs (wf_live_sock _ _ _ W0 Hl) Hx) as [Hex | [Hne HW]]; [left; exact Hex | right].
  destruct (Step_const _ _ _ _ Hx) as [Hc1 Hc2].
  pose proof (pen_int_step s _ _ _ _ Hi Hncs Hx) as HP.
  assert (Hist : g_ist g' = g_ist (s_g s)).
  { destruct (Step_running _ _ _ _ Hx) as [[n E] | [E | [E | (_ & R2 & _)]]]; auto; try contradiction;
      exfalso; destruct (g_il (s_g s)) as [p k]; simpl in E; subst p; exact Hi. }
  assert (Hq : c_q (g_ci g') = c_q (g_ci (s_g s)) /\ c_rcvd (g_ci g') = c_rcvd (g_ci (s_g s))).
  { destruct (Step_queues _ _ _ _ Hx CI) as [(Q1 & _ & Q3) | [(m & E & _) | (w & m & r & E & _)]]; auto; exfalso.
    - exact (ro_not_send_ci _ Hi Hro _ E).
    - eapply Hncs; eauto. }
  simpl. split; [congruence|]. split; [apply Hq|]. split; [apply Hq|]. intros qh.
  unfold mua. simpl. rewrite Hc1, Hc2. apply Nat.add_lt_le_mono; [apply HW | exact HP].
Qed.

Lemma int_progress : forall s, wf smode emode s -> g_ist (s_g s) = ILive -> blocked (s_g s) (g_il (s_g s)) = false ->
  replies_only (g_il (s_g s)) ->
  exists s' ev, sys_step s (LStep I CRun) = Some (s', ev) /\
    (g_ist (s_g s') = IExited \/ drained s' \/ (g_ist (s_g s') = ILive /\ mu s' < mu s)).
Proof.
  intros s W0 Hl Hb Hro.
  destruct (recv_cs_dec (l_pc (g_il (s_g s)))) as [[w Hp] | Hncs].
  - (* the critical section: the queue is looked at *)
    pose proof (wf_ipc _ _ _ W0 Hl) as Hi.
    destruct (g_il (s_g s)) as [p k] eqn:El. simpl in Hp. subst p. unfold ipc_ok in Hi. simpl in Hi. destr_k k.
    unfold sys_step, mu, pen, drained. rewrite Hl, El. unfold ThreadQ.step, goto. simpl.
    destruct (c_q (g_ci (s_g s))) as [|m rest] eqn:Eq; eexists; eexists; (split; [reflexivity|]); simpl; rewrite ?Eq, ?Hl.
    + destruct w; try (right; left; right; auto; fail).
      destruct (g_evd (s_g s)); [right; left; right; auto|].
      right; right. split; [reflexivity|]. simpl. lia.
    + right; right. split; [reflexivity|]. destruct m as [y|]; unfold W, final; simpl; lia.
  - destruct (int_step_any s W0 Hl Hb Hro Hncs) as (s' & ev & Hs & [Hx | (Hl' & Q & _ & Hlt)]).
    + exists s', ev. auto.
    + exists s', ev. split; [exact Hs|]. right; right. split; [exact Hl'|].
      unfold mu. rewrite Q. apply Hlt.
Qed.

Lemma odist_ge1 : forall p, 1 <= odist p.
Proof. intros p. destruct p; simpl; lia. Qed.

Lemma mua_lt_mu : forall s s', c_q (g_ci (s_g s')) = c_q (g_ci (s_g s)) -> (forall qh, mua qh s' < mua qh s) -> mu s' < mu s.
Proof. intros s s' Q H. unfold mu. rewrite Q. apply H. Qed.

Lemma signaller_keeps : forall s t g' l' e,
  is_pend_i (l_pc (s_l s t)) = true -> Step CRun (s_g s) (s_l s t) g' l' e ->
  (c_q (g_ci g') = c_q (g_ci (s_g s)) /\ c_sent (g_ci g') = c_sent (g_ci (s_g s)) /\
   c_rcvd (g_ci g') = c_rcvd (g_ci (s_g s))) /\
  g_ist g' = g_ist (s_g s) /\ g_il g' = g_il (s_g s).
Proof.
  intros s t g' l' e Pt Hx. split.
  - destruct (Step_queues _ _ _ _ Hx CI) as [Q | [(m & E & _) | (w & m & r & E & _)]];
      [exact Q | rewrite E in Pt; discriminate ..].
  - destruct (Step_running _ _ _ _ Hx) as [[n E] | [E | [E | (_ & R2 & R3 & _)]]];
      [rewrite E in Pt; discriminate .. | auto].
Qed.

(* when the internal thread is blocked with Messages queued, the step of any thread that owes it the signal brings the
   wake-up closer (and leaves the queue alone) *)
Lemma sig_strict : forall s u, wf smode emode s -> g_ist (s_g s) = ILive ->
  blocked (s_g s) (g_il (s_g s)) = true -> c_q (g_ci (s_g s)) <> [] ->
  is_pend_i (l_pc (s_l s u)) = true ->
  exists s' ev, sys_step s (LStep (U u) CRun) = Some (s', ev) /\ g_ist (s_g s') = ILive /\
    c_q (g_ci (s_g s')) = c_q (g_ci (s_g s)) /\ c_rcvd (g_ci (s_g s')) = c_rcvd (g_ci (s_g s)) /\
    forall qh, mua qh s' < mua qh s.
Proof.
  intros s u W0 Hl Hb Hq Pu.
  destruct (blocked_int _ _ (wf_ipc _ _ _ W0 Hl) Hb) as [Hw Hr].
  destruct (step_enabled false absorb_n no_limit react _ _ (pend_i_unblocked (s_g s) _ Pu)) as [[[g' l'] e] Hx].
  exists (mkS g' (upd (s_l s) u l')), e.
  split; [simpl; rewrite Hx; reflexivity|].
  apply step_spec in Hx.
  pose proof (wf_upc _ _ _ W0 u) as Hup.
  pose proof (wf_live_sock _ _ _ W0 Hl) as Hsock.
  pose proof (odist_ge1 (l_pc (s_l s 0))) as Hod.
  destruct (signaller_keeps s u g' l' e Pu Hx) as ((Q & _ & Q3) & I1 & I2).
  destruct (Step_const _ _ _ _ Hx) as [Hc1 Hc2].
  simpl. split; [congruence|]. split; [exact Q|]. split; [exact Q3|]. intros qh.
  unfold mua, pen. simpl. rewrite Hc1, Hc2, I2, Hw, Hr. apply Nat.add_lt_mono_l.
  (* the signal makes the wait satisfiable; StartInternalThread gets one step closer to sending it *)
  assert (Sig : forall e0, signal no_limit CI (s_g s) = (g', e0) -> readable g' CI = true).
  { intros e0 Hsig. apply (signal_CI_readable _ _ _ _ Hnl Hsig). exact Hsock. }
  destruct (s_l s u) as [p k] eqn:El. simpl in Pu.
  destruct (is_pend_i_inv _ Pu) as [-> | [-> | [-> | ->]]]; inversion Hx; subst; clear Hx.
  - erewrite Sig by eassumption. lia.
  - assert (u = 0) by (unfold upc_ok in Hup; simpl in Hup; destruct k; [exact Hup | contradiction]). subst u.
    rewrite Hr, upd_same, El. simpl. lia.
  - assert (u = 0) by (unfold upc_ok in Hup; simpl in Hup; destruct k; [exact Hup | contradiction]). subst u.
    rewrite Hr, upd_same, El. simpl. destruct (c_q (g_ci (s_g s))); [contradiction | simpl; lia].
  - erewrite Sig by eassumption. lia.
Qed.

Lemma R_wf : forall s, R s -> wf smode emode s.
Proof. exact (reachable_wf false absorb_n no_limit react any_label smode emode). Qed.

(* nobody but the internal thread writes g_il *)
Lemma reachable_int_local : forall P : local -> Prop, P (mkL PIEntry []) ->
  (forall c g l g' l' ev, ipc_ok l -> P l -> Step c g l g' l' ev -> P l') ->
  forall s, R s -> g_ist (s_g s) = ILive -> P (g_il (s_g s)).
Proof.
  intros P P0 Pstep s Rs. induction Rs as [|s lab s' ev Rs IH _ Hs]; [intros H; discriminate|].
  pose proof (R_wf s Rs) as W0.
  intros Hl'. destruct (sys_step_spec _ _ _ _ Hs) as [t o _ _ _ | t c g' l' e' Hst | c g' l' e' Hl Hst]; simpl in *.
  - auto.
  - destruct (Step_running _ _ _ _ Hst) as [[n Hn] | [Hj | [Hx | (R1 & R2 & R3 & R4)]]].
    + destruct (s_l s t) as [p k]. simpl in Hn. subst p. inversion Hst; subst. exact P0.
    + destruct (s_l s t) as [p k]. simpl in Hj. subst p. inversion Hst; subst. simpl in Hl'. discriminate.
    + pose proof (wf_upc _ _ _ W0 t) as Hu. destruct (s_l s t) as [p k]. simpl in Hx. subst p. destruct Hu.
    + rewrite R3. apply IH. congruence.
  - eapply Pstep; [apply (wf_ipc _ _ _ W0 Hl) | apply IH; exact Hl | exact Hst].
Qed.

(* while it is alive the internal thread is sending replies only (from Hnoself) *)
Lemma reachable_ro : forall s, R s -> g_ist (s_g s) = ILive -> replies_only (g_il (s_g s)).
Proof. apply reachable_int_local; [exact Coq.Init.Logic.I | exact Step_ro]. Qed.

(* Every queued Message can be delivered: from every reachable state with a live internal thread there is a
   continuation of helper steps at whose end the thread has finished or has emptied its queue and is about to block. *)
Theorem can_drain : forall s, R s -> g_ist (s_g s) = ILive -> canreach (fun s' => R s' /\ drained s') s.
Proof.
  intros s. remember (mu s) as n eqn:En. revert s En.
  induction n as [n IH] using lt_wf_ind. intros s En Rs Hl.
  pose proof (R_wf s Rs) as W0.
  destruct (blocked (s_g s) (g_il (s_g s))) eqn:Hb.
  - destruct (c_q (g_ci (s_g s))) as [|m0 q0] eqn:Eq.
    + apply cr_here. split; [exact Rs | right]. destruct (blocked_int _ _ (wf_ipc _ _ _ W0 Hl) Hb) as [Hw _]. auto.
    + assert (Hq : c_q (g_ci (s_g s)) <> []) by (rewrite Eq; discriminate).
      destruct (blocked_token absorb_n no_limit react Hnl any_label smode emode s Rs Hl Hq Hb) as [t Pt].
      destruct (sig_strict s t W0 Hl Hb Hq Pt) as (s' & ev & Hs & Hl' & Q & _ & Hm).
      assert (Rs' : R s') by (eapply reach_step; eauto; reflexivity).
      eapply cr_step; [right; exists t; auto | exact Hs |].
      eapply (IH (mu s')); eauto. rewrite En. apply mua_lt_mu; assumption.
  - destruct (int_progress s W0 Hl Hb (reachable_ro s Rs Hl)) as (s' & ev & Hs & Hc).
    assert (Rs' : R s') by (eapply reach_step; eauto; reflexivity).
    eapply cr_step; [left; reflexivity | exact Hs |].
    destruct Hc as [Hx | [Hd | [Hl' Hm]]].
    + apply cr_here. split; [exact Rs' | left; exact Hx].
    + apply cr_here. split; [exact Rs' | exact Hd].
    + eapply (IH (mu s')); eauto. lia.
Qed.

(* a NULL Message is queued for the thread, or it has taken one and is on its way out, or it has finished *)
Definition null_seen (s : sys) : Prop :=
  In None (c_q (g_ci (s_g s))) \/ (g_ist (s_g s) = ILive /\ exiting (l_pc (g_il (s_g s))) = true) \/ g_ist (s_g s) = IExited.

Lemma null_seen_W : forall s, g_ist (s_g s) = ILive -> null_seen s ->
  In None (c_q (g_ci (s_g s))) \/ exiting (l_pc (g_il (s_g s))) = true.
Proof. intros s Hl [A | [[_ B] | C]]; auto. congruence. Qed.

Lemma helper_keeps_null_seen : forall s lab s' ev, wf smode emode s -> null_seen s -> helper s lab ->
  sys_step s lab = Some (s', ev) -> null_seen s'.
Proof.
  intros s lab s' ev W0 G Hh H.
  destruct Hh as [-> | (t & -> & Pt)]; apply sys_step_spec in H;
    inversion H as [ | ? ? g' l' ? Hst | ? g' l' ? Hl Hst]; subst; clear H.
  - (* the internal thread *)
    unfold null_seen. simpl.
    destruct (int_step_null _ _ _ Hl (wf_ipc _ _ _ W0 Hl) Hst (null_seen_W s Hl G)) as [Hx | [Hl' [A | B]]]; auto.
  - (* a signaller *)
    destruct (signaller_keeps s t g' l' _ Pt Hst) as ((Q & _) & I1 & I2).
    unfold null_seen in *. simpl. rewrite Q, I1, I2. exact G.
Qed.

Lemma canreach_carry : forall (Inv : sys -> Prop),
  (forall s lab s' ev, R s -> Inv s -> helper s lab -> sys_step s lab = Some (s', ev) -> Inv s') ->
  forall (P : sys -> Prop) s, R s -> Inv s -> canreach (fun x => R x /\ P x) s -> canreach (fun x => R x /\ P x /\ Inv x) s.
Proof.
  intros Inv Hpres P s Rs Is C. revert Rs Is. induction C; intros Rs Is.
  - apply cr_here. tauto.
  - assert (Rs' : R s') by (eapply reach_step; eauto; reflexivity).
    eapply cr_step; eauto.
Qed.

Lemma exiting_looks : forall evd p, exiting p = true -> will_look evd p = true.
Proof. intros evd p H. destruct p; try discriminate; reflexivity. Qed.

(* Shutdown can always complete: once a NULL Message is queued for a live internal thread (or it has already taken
   one), there is a continuation -- steps of the internal thread and of threads that owe it a signal only -- at whose
   end the thread has finished, so that WaitForInternalThreadToExit returns. *)
Theorem shutdown_can_complete : forall s, R s -> g_ist (s_g s) = ILive -> null_seen s ->
  canreach (fun s' => R s' /\ g_ist (s_g s') = IExited) s.
Proof.
  intros s Rs Hl G.
  pose proof (can_drain s Rs Hl) as C.
  apply (canreach_carry null_seen) in C; auto.
  - eapply canreach_weaken; [|exact C]. intros x (Rx & D & Gx). split; [exact Rx|].
    destruct D as [E | (Lx & Qx & Wx)]; [exact E|]. exfalso.
    destruct Gx as [A | [[_ B] | Cx]].
    + rewrite Qx in A. contradiction.
    + rewrite (exiting_looks _ _ B) in Wx. discriminate.
    + congruence.
  - intros x lab x' ev Rx Gx Hh Hs. eapply helper_keeps_null_seen; eauto. apply R_wf; exact Rx.
Qed.

Lemma helper_keeps_sent : forall s lab s' ev, wf smode emode s ->
  (g_ist (s_g s) = ILive -> replies_only (g_il (s_g s))) ->
  helper s lab -> sys_step s lab = Some (s', ev) ->
  c_sent (g_ci (s_g s')) = c_sent (g_ci (s_g s)).
Proof.
  intros s lab s' ev W0 Hro0 Hh H.
  destruct Hh as [-> | (t & -> & Pt)]; apply sys_step_spec in H;
    inversion H as [ | ? ? g' l' ? Hst | ? g' l' ? Hl Hst]; subst; clear H; simpl.
  - destruct (Step_queues _ _ _ _ Hst CI) as [(_ & Q & _) | [(m & E & _) | (w & m & r & _ & _ & E)]].
    + exact Q.
    + exfalso. exact (ro_not_send_ci _ (wf_ipc _ _ _ W0 Hl) (Hro0 Hl) _ E).
    + simpl in E. rewrite E. reflexivity.
  - destruct (signaller_keeps s t g' l' _ Pt Hst) as ((_ & Q & _) & _). exact Q.
Qed.

(* Every queued Message can be received: there is a continuation of helper steps during which the internal thread
   receives, in order, the Messages queued for it now -- all of them, unless it finishes first (a NULL Message, or its
   MessageReceivedFromOwner asks to leave), in which case it has received a prefix. *)
Theorem queued_can_be_received : forall s, R s -> g_ist (s_g s) = ILive ->
  canreach (fun s' => R s' /\ exists got,
              c_rcvd (g_ci (s_g s')) = c_rcvd (g_ci (s_g s)) ++ got /\
              got ++ c_q (g_ci (s_g s')) = c_q (g_ci (s_g s)) /\
              (g_ist (s_g s') = IExited \/ c_q (g_ci (s_g s')) = [])) s.
Proof.
  intros s Rs Hl.
  pose proof (can_drain s Rs Hl) as C.
  set (Inv := fun x : sys => c_sent (g_ci (s_g x)) = c_sent (g_ci (s_g s)) /\
                             exists b, c_rcvd (g_ci (s_g x)) = c_rcvd (g_ci (s_g s)) ++ b).
  apply (canreach_carry Inv) in C; auto.
  - eapply canreach_weaken; [|exact C]. intros x (Rx & D & (Sx & b & Bx)). split; [exact Rx|].
    exists b. split; [exact Bx|].
    pose proof (reachable_fifo _ _ _ _ _ _ _ _ Rs CI) as F. pose proof (reachable_fifo _ _ _ _ _ _ _ _ Rx CI) as F'.
    simpl in F, F'. rewrite Sx, Bx, F in F'. rewrite <- app_assoc in F'. apply app_inv_head in F'.
    split; [symmetry; exact F'|].
    destruct D as [E | (_ & Qx & _)]; auto.
  - unfold Inv. intros x lab x' ev Rx (Sx & b & Bx) Hh Hs. split.
    + rewrite <- Sx. eapply helper_keeps_sent; eauto; [apply R_wf; exact Rx | apply reachable_ro; exact Rx].
    + destruct (sys_step_hist _ _ _ _ _ _ _ _ Hs) as [_ E]. destruct (E CI) as (a1 & b1 & _ & Eb). simpl in Eb.
      exists (b ++ b1). rewrite Eb, Bx, app_assoc. reflexivity.
  - unfold Inv. split; [reflexivity | exists []; rewrite app_nil_r; reflexivity].
Qed.

(* the internal thread never waits with a finite timeout *)
Definition untimed (p : pc) : Prop :=
  match p with
  | PRecvAbsorb CI WTimed | PRecvCS CI WTimed | PRecvNone CI WTimed | PRecvPark CI WTimed => False
  | _ => True
  end.

Lemma next_reply_untimed : forall evd rs qt k p k' e', next_reply evd rs qt k = (p, k', e') -> untimed p.
Proof.
  intros evd rs qt k p k' e' H. unfold next_reply in H. destruct rs as [|[c m] rest]; inv H.
  - destruct qt; [|destruct evd]; exact Coq.Init.Logic.I.
  - destruct c; exact Coq.Init.Logic.I.
Qed.

Lemma dispatch_untimed : forall evd r k p k' e', dispatch react evd r k = (p, k', e') -> untimed p.
Proof.
  intros evd r k p k' e' H. unfold dispatch in H.
  destruct r as [ | [y|] n | | | | | | ]; try (inv H; try destruct evd; exact Coq.Init.Logic.I).
  destruct (next_reply evd (fst (react y)) (snd (react y)) k) as [[p1 k1] e1] eqn:En. inv H.
  eapply next_reply_untimed; eauto.
Qed.

Lemma Step_untimed : forall c g l g' l' ev, ipc_ok l -> untimed (l_pc l) -> Step c g l g' l' ev -> untimed (l_pc l').
Proof.
  intros c g l g' l' ev Hi Hu HS.
  inv_int HS Hi; simpl in Hu |- *; try exact Coq.Init.Logic.I;
    try (match goal with y : ThreadQ.wake |- _ => destruct y end; simpl in *; try contradiction; exact Coq.Init.Logic.I);
    match goal with Hr : ret _ _ _ _ = _ |- _ =>
      first [ eapply dispatch_untimed; exact Hr | eapply next_reply_untimed; exact Hr ] end.
Qed.

Lemma reachable_untimed : forall s, R s -> g_ist (s_g s) = ILive -> untimed (l_pc (g_il (s_g s))).
Proof. apply (reachable_int_local (fun l => untimed (l_pc l))); [exact Coq.Init.Logic.I | exact Step_untimed]. Qed.

(* appending behind a NULL Message does not change the work ahead of the thread *)
Lemma go_app : forall evd q w l, In None q -> go evd w (q ++ l) = go evd w q.
Proof.
  intros evd q. induction q as [|[x|] r IH]; intros w l Hin; simpl in *; try tauto.
  destruct Hin as [E | Hin]; [discriminate|]. rewrite (IH _ l Hin). reflexivity.
Qed.

Lemma W_app : forall sk evd l q m, In None q \/ exiting (l_pc l) = true -> W sk evd l (q ++ [m]) = W sk evd l q.
Proof.
  intros sk evd [p k] q m [Hin | Hx].
  - unfold W, wloop, final. simpl.
    destruct p; try reflexivity;
      repeat match goal with
      | |- context [match ?y with CI => _ | CO => _ end] => destruct y
      | |- context [match ?y with WPoll => _ | WNever => _ | WTimed => _ end] => destruct y
      | |- context [match ?y with Some _ => _ | None => _ end] => destruct y
      | |- context [match ?y with [] => _ | _ :: _ => _ end] => destruct y
      | |- context [match ?y with KShutdown _ => _ | KDiscard => _ | KLoop => _ | KReplies _ _ => _ end] => destruct y
      | |- context [if ?y then _ else _] => destruct y
      end; rewrite ?go_app by exact Hin; reflexivity.
  - simpl in Hx. destruct p; try discriminate; [destruct c; try discriminate; destruct m0; try discriminate|]; reflexivity.
Qed.

Lemma user_odist : forall t c g l g' l' ev, upc_ok t l -> (forall n, l_pc l <> PStartSpawn n) ->
  Step c g l g' l' ev -> odist (l_pc l') <= odist (l_pc l).
Proof.
  intros t c g l g' l' ev Hu Hns HS. pose proof (odist_ge1 (l_pc l)) as H1.
  inv_user HS Hu; simpl in H1 |- *; try lia; exfalso; eapply Hns; reflexivity.
Qed.

Lemma pen_le : forall s s',
  g_evd (s_g s') = g_evd (s_g s) -> g_il (s_g s') = g_il (s_g s) ->
  (readable (s_g s) CI = true -> readable (s_g s') CI = true) ->
  odist (l_pc (s_l s' 0)) <= odist (l_pc (s_l s 0)) -> pen s' <= pen s.
Proof.
  intros s s' He Hi Hr Ho. unfold pen. rewrite He, Hi.
  destruct (will_look (g_evd (s_g s)) (l_pc (g_il (s_g s)))); [lia|].
  destruct (readable (s_g s) CI) eqn:E; [rewrite Hr by reflexivity; lia|].
  destruct (readable (s_g s') CI); lia.
Qed.

Lemma other_step : forall s lab s' ev, R s -> g_ist (s_g s) = ILive ->
  (forall c, lab <> LStep I c) -> sys_step s lab = Some (s', ev) ->
  g_ist (s_g s') = ILive /\ g_il (s_g s') = g_il (s_g s) /\
  g_sockets (s_g s') = g_sockets (s_g s) /\ g_evd (s_g s') = g_evd (s_g s) /\
  c_rcvd (g_ci (s_g s')) = c_rcvd (g_ci (s_g s)) /\
  (c_q (g_ci (s_g s')) = c_q (g_ci (s_g s)) \/ exists m, c_q (g_ci (s_g s')) = c_q (g_ci (s_g s)) ++ [m]) /\
  pen s' <= pen s /\
  (readable (s_g s) CI = true -> readable (s_g s') CI = true) /\
  (forall u, (forall c, lab <> LStep (U u) c) -> l_pc (s_l s' u) = l_pc (s_l s u) \/ l_pc (s_l s u) = PIdle).
Proof.
  intros s lab s' ev Rs Hl Hni H.
  pose proof (R_wf s Rs) as W0.
  pose proof (wf_wfg _ _ _ W0) as Wg.
  destruct (sys_step_spec _ _ _ _ H) as [t o Hp Hk Ha | t c g' l' e' Hst | c g' l' e' _ Hst]; clear H.
  - (* a call begins *)
    simpl. repeat split; auto.
    + apply pen_le; simpl; auto.
      unfold upd. destruct (Nat.eqb_spec 0 t); [subst t; rewrite Hp | lia]. simpl. destruct o as [? ?| | | | | | []]; simpl; lia.
    + intros u _. unfold upd. destruct (Nat.eqb_spec u t); [subst u; right; exact Hp | left; reflexivity].
  - (* a user thread's step *)
    pose proof (wf_upc _ _ _ W0 t) as Hu.
    pose proof (live_life_pc _ _ _ W0 Hl Hst) as Lp.
    destruct (Step_const _ _ _ _ Hst) as [Hc1 Hc2].
    destruct (user_step_ci _ _ _ Hu Lp Hst) as (I1 & I2 & _ & Q3 & Hq).
    assert (Hns : forall n, l_pc (s_l s t) <> PStartSpawn n) by (intros n E; rewrite E in Lp; discriminate).
    assert (Hrd : readable (s_g s) CI = true -> readable g' CI = true) by (eapply user_readable_mono; eauto).
    simpl. split; [congruence|]. split; [exact I2|]. split; [exact Hc1|]. split; [exact Hc2|].
    split; [exact Q3|]. split; [destruct Hq as [Q | (m & _ & Q)]; eauto|]. split; [|split; [exact Hrd|]].
    + apply pen_le; simpl; auto.
      unfold upd. destruct (Nat.eqb_spec 0 t); [subst t; eapply user_odist; eauto | lia].
    + intros u Hnu. unfold upd. destruct (Nat.eqb_spec u t); [subst u; exfalso; eapply Hnu; reflexivity | left; reflexivity].
  - exfalso. eapply Hni; reflexivity.
Qed.

Lemma blocked_no_step : forall g l, blocked g l = true -> step CRun g l = None.
Proof.
  intros g [p k] Hb. unfold blocked in Hb. simpl in Hb. unfold ThreadQ.step. simpl.
  destruct p; try discriminate; try reflexivity.
  - apply negb_true_iff in Hb. rewrite Hb. destruct w; reflexivity.
  - destruct (g_ist g); try discriminate; reflexivity.
  - apply negb_true_iff in Hb. rewrite Hb. reflexivity.
Qed.

Definition blk (s : sys) : bool := blocked (s_g s) (g_il (s_g s)).
Definition pend (s : sys) (u : tid) : bool := is_pend_i (l_pc (s_l s u)).

Lemma int_step_unblocked : forall s x, g_ist (s_g s) = ILive -> sys_step s (LStep I CRun) = Some x -> blk s = false.
Proof.
  intros s x Hl Hs. unfold blk. destruct (blocked (s_g s) (g_il (s_g s))) eqn:Hb; [|reflexivity].
  simpl in Hs. rewrite Hl, (blocked_no_step _ _ Hb) in Hs. discriminate.
Qed.

(* infinite executions (with stuttering) and weak fairness *)

Record frun := mkRun {
  f_st : nat -> sys;
  f_lb : nat -> option label;
  f_step : forall i, match f_lb i with
                     | Some lab => exists ev, sys_step (f_st i) lab = Some (f_st (S i), ev)
                     | None => f_st (S i) = f_st i
                     end
}.

Definition en_I (s : sys) : Prop := exists x, sys_step s (LStep I CRun) = Some x.
Definition en_U (t : tid) (s : sys) : Prop := exists x, sys_step s (LStep (U t) CRun) = Some x.

(* weak fairness: a step that is enabled is eventually taken, unless it gets disabled *)
Definition fair (r : frun) : Prop :=
  (forall i, exists j, i <= j /\ (f_lb r j = Some (LStep I CRun) \/ ~ en_I (f_st r j))) /\
  (forall t i, exists j, i <= j /\ (f_lb r j = Some (LStep (U t) CRun) \/ ~ en_U t (f_st r j))).

Lemma run_reach : forall r, R (f_st r 0) -> forall i, R (f_st r i).
Proof.
  intros r R0 i. induction i; [exact R0|].
  pose proof (f_step r i) as Hs. destruct (f_lb r i).
  - destruct Hs as [ev Hs]. eapply reach_step; eauto.
  - rewrite Hs. exact IHi.
Qed.

Lemma no_int_timeout : forall s, R s -> g_ist (s_g s) = ILive -> sys_step s (LStep I CTimeout) = None.
Proof.
  intros s Rs Hl. simpl. rewrite Hl.
  pose proof (reachable_untimed s Rs Hl) as Hu.
  pose proof (wf_ipc _ _ _ (R_wf s Rs) Hl) as Hi.
  destruct (g_il (s_g s)) as [p k]. unfold ipc_ok in Hi. simpl in *. unfold ThreadQ.step. simpl.
  destruct p; try reflexivity; try contradiction.
  destruct w; try reflexivity.
  destruct c; [contradiction | destruct k as [|[] [|? ?]]; contradiction].
Qed.

Lemma blocked_mono : forall g g' l, ipc_ok l -> blocked g l = false ->
  (readable g CI = true -> readable g' CI = true) -> blocked g' l = false.
Proof.
  intros g g' [p k] Hi Hb Hr. unfold ipc_ok in Hi. unfold blocked in *. simpl in *.
  destruct p; try reflexivity; try contradiction; try discriminate.
  - destruct c; [|destruct k as [|[] [|? ?]]; contradiction].
    rewrite wakeable_CI in *. apply negb_false_iff in Hb. rewrite (Hr Hb). reflexivity.
  - apply negb_false_iff in Hb. rewrite (Hr Hb). reflexivity.
Qed.

Lemma pend_no_timeout : forall g l, is_pend_i (l_pc l) = true -> step CTimeout g l = None.
Proof. intros g [p k] H. simpl in H. unfold ThreadQ.step. simpl. destruct p; try discriminate; reflexivity. Qed.

Lemma label_eq_dec : forall a b : option label, a = b \/ a <> b.
Proof. intros a b. assert (D : {a = b} + {a <> b}) by (repeat decide equality). destruct D; auto. Qed.

(* what an invariant Good, a goal Done and a measure m have to satisfy, step by step *)
Definition respected (Good Done : sys -> Prop) (m : sys -> nat) : Prop :=
  (forall s, Good s -> g_ist (s_g s) = ILive) /\
  (forall s lab s' ev, R s -> Good s -> (forall c, lab <> LStep I c) ->
     sys_step s lab = Some (s', ev) -> Good s' /\ m s' <= m s) /\
  (forall s s' ev, R s -> Good s -> sys_step s (LStep I CRun) = Some (s', ev) -> Done s' \/ (Good s' /\ m s' < m s)) /\
  (forall s, R s -> Good s -> blk s = true -> exists u, pend s u = true) /\
  (forall s u s' ev, R s -> Good s -> blk s = true -> pend s u = true ->
     sys_step s (LStep (U u) CRun) = Some (s', ev) -> m s' < m s).

Lemma one_step : forall Good Done m r, respected Good Done m -> R (f_st r 0) -> forall i, Good (f_st r i) ->
  Done (f_st r (S i)) \/
  (Good (f_st r (S i)) /\ m (f_st r (S i)) <= m (f_st r i) /\
   (f_lb r i = Some (LStep I CRun) -> m (f_st r (S i)) < m (f_st r i)) /\
   (f_lb r i <> Some (LStep I CRun) -> blk (f_st r i) = false -> blk (f_st r (S i)) = false) /\
   (forall u, f_lb r i <> Some (LStep (U u) CRun) -> pend (f_st r i) u = true -> pend (f_st r (S i)) u = true) /\
   (forall u, f_lb r i = Some (LStep (U u) CRun) -> pend (f_st r i) u = true -> blk (f_st r i) = true -> m (f_st r (S i)) < m (f_st r i))).
Proof.
  intros Good Done m r (Good_live & Hother & Hint & _ & Hsig) R0 i Hg. pose proof (Good_live _ Hg) as Hl.
  pose proof (run_reach r R0 i) as Rs.
  pose proof (R_wf _ Rs) as W0.
  pose proof (f_step r i) as Hs.
  destruct (f_lb r i) as [lab|] eqn:Elb.
  2:{ right. rewrite Hs. split; [exact Hg|]. split; [lia|].
      split; [intros H; discriminate|]. split; [auto|]. split; [auto | intros u H; discriminate]. }
  destruct Hs as [ev Hs].
  assert (Hlab : (exists c, lab = LStep I c) \/ (forall c, lab <> LStep I c)).
  { destruct lab as [t o | [t|] c]; [right; intros c H; discriminate H | right; intros c0 H; discriminate H | left; eauto]. }
  destruct Hlab as [[c ->] | Hni].
  - (* the internal thread's step *)
    destruct c; [|exfalso; rewrite (no_int_timeout _ Rs Hl) in Hs; discriminate].
    destruct (Hint _ _ _ Rs Hg Hs) as [Hd | [Hg' Hlt]]; [left; exact Hd | right].
    split; [exact Hg'|]. split; [lia|]. split; [intros _; exact Hlt|].
    split; [intros H; exfalso; apply H; reflexivity|]. split; [|intros u H; discriminate].
    intros u _ Pu. unfold pend in *. apply sys_step_spec in Hs. inversion Hs; subst. exact Pu.
  - (* anybody else's *)
    destruct (Hother _ _ _ _ Rs Hg Hni Hs) as [Hg' Hm'].
    destruct (other_step _ _ _ _ Rs Hl Hni Hs) as (_ & I' & _ & _ & _ & _ & _ & Rd & P').
    right. split; [exact Hg'|]. split; [exact Hm'|].
    split; [intros H; inv H; exfalso; exact (Hni _ eq_refl)|]. split; [|split].
    + intros _ Hb. unfold blk in *. rewrite I'. eapply blocked_mono; eauto. apply (wf_ipc _ _ _ W0 Hl).
    + intros u Hnu Pu. unfold pend in *.
      destruct (P' u) as [E | E]; [| rewrite E; exact Pu | rewrite E in Pu; discriminate].
      (* a pending signaller does not time out *)
      intros c0 H. subst lab. destruct c0; [apply Hnu; reflexivity|].
      simpl in Hs. rewrite (pend_no_timeout _ _ Pu) in Hs. discriminate.
    + intros u Hu Pu Hb. inv Hu. eapply Hsig; eauto.
Qed.

(* from position i on, Done is reached or the measure falls below n with Good still holding *)
Definition closer (Good Done : sys -> Prop) (m : sys -> nat) (r : frun) (i n : nat) : Prop :=
  exists j, i <= j /\ (Done (f_st r j) \/ (Good (f_st r j) /\ m (f_st r j) < n)).

(* the internal thread is not blocked: it stays so until it takes its step, which weak fairness grants *)
Lemma unblocked_closer : forall Good Done m r, respected Good Done m -> R (f_st r 0) ->
  forall d i, Good (f_st r i) -> blk (f_st r i) = false ->
  (f_lb r (i + d) = Some (LStep I CRun) \/ ~ en_I (f_st r (i + d))) -> closer Good Done m r i (m (f_st r i)).
Proof.
  intros Good Done m r HR R0. induction d as [|d IH]; intros i Hg Hb Hw;
    (destruct (one_step _ _ _ _ HR R0 i Hg) as [Hx | (Hg' & Hle & Hlt & Hpb & _)]; [exists (S i); split; [lia | left; exact Hx]|]).
  - rewrite Nat.add_0_r in Hw. destruct Hw as [Hw | Hw].
    + exists (S i). split; [lia|]. right. split; [exact Hg' | exact (Hlt Hw)].
    + exfalso. apply Hw. apply (int_enabled absorb_n no_limit react); [apply (proj1 HR); exact Hg | exact Hb].
  - destruct (label_eq_dec (f_lb r i) (Some (LStep I CRun))) as [Ei | Hne].
    + exists (S i). split; [lia|]. right. split; [exact Hg' | exact (Hlt Ei)].
    + destruct (IH (S i) Hg' (Hpb Hne Hb)) as (j & Hj & Hc); [replace (S i + d) with (i + S d) by lia; exact Hw|].
      exists j. split; [lia|]. destruct Hc as [Hc | [Hc1 Hc2]]; [left; exact Hc | right; split; [exact Hc1 | lia]].
Qed.

(* the internal thread is blocked: a thread that owes it the signal stays pending until it steps, which weak fairness
   grants; that step, or an earlier one that unblocks the internal thread, brings completion closer *)
Lemma blocked_closer : forall Good Done m r, respected Good Done m -> R (f_st r 0) -> fair r ->
  forall d i u, Good (f_st r i) -> pend (f_st r i) u = true ->
  (f_lb r (i + d) = Some (LStep (U u) CRun) \/ ~ en_U u (f_st r (i + d))) -> closer Good Done m r i (m (f_st r i)).
Proof.
  intros Good Done m r HR R0 Hfair. induction d as [|d IH]; intros i u Hg Pu Hw;
    (destruct (blk (f_st r i)) eqn:Hb;
     [|destruct (proj1 Hfair i) as (j & Hj & Hwj); replace j with (i + (j - i)) in Hwj by lia; eapply unblocked_closer; eauto]);
    (destruct (one_step _ _ _ _ HR R0 i Hg) as [Hx | (Hg' & Hle & _ & _ & Hpp & Hstrict)]; [exists (S i); split; [lia | left; exact Hx]|]).
  - rewrite Nat.add_0_r in Hw. destruct Hw as [Hw | Hw].
    + exists (S i). split; [lia|]. right. split; [exact Hg' | exact (Hstrict u Hw Pu Hb)].
    + exfalso. apply Hw. apply (user_enabled absorb_n no_limit react). apply pend_i_unblocked. exact Pu.
  - destruct (label_eq_dec (f_lb r i) (Some (LStep (U u) CRun))) as [Eu | Hne].
    + exists (S i). split; [lia|]. right. split; [exact Hg' | exact (Hstrict u Eu Pu Hb)].
    + destruct (IH (S i) u Hg' (Hpp u Hne Pu)) as (j & Hj & Hc); [replace (S i + d) with (i + S d) by lia; exact Hw|].
      exists j. split; [lia|]. destruct Hc as [Hc | [Hc1 Hc2]]; [left; exact Hc | right; split; [exact Hc1 | lia]].
Qed.

(* Eventually, under weak fairness, for any invariant Good, goal Done and measure m that the steps respect: while it is
   not blocked the internal thread stays enabled until it steps; while it is blocked a signaller stays pending until it
   steps, or somebody else unblocks the thread; fairness grants the step in either case, and the step lowers m. *)
Theorem fair_eventually : forall Good Done m r, respected Good Done m -> R (f_st r 0) -> fair r ->
  forall i, Good (f_st r i) -> exists j, i <= j /\ Done (f_st r j).
Proof.
  intros Good Done m r HR R0 Hfair i. remember (m (f_st r i)) as n eqn:En. revert i En.
  induction n as [n IH] using lt_wf_ind. intros i En Hg.
  assert (Hc : closer Good Done m r i n).
  { rewrite En. destruct (blk (f_st r i)) eqn:Hb.
    - destruct (proj1 (proj2 (proj2 (proj2 HR))) _ (run_reach r R0 i) Hg Hb) as [u Pu].
      destruct (proj2 Hfair u i) as (j & Hj & Hwj). replace j with (i + (j - i)) in Hwj by lia.
      eapply blocked_closer; eauto.
    - destruct (proj1 Hfair i) as (j & Hj & Hwj). replace j with (i + (j - i)) in Hwj by lia.
      eapply unblocked_closer; eauto. }
  destruct Hc as (j & Hj & [Hx | (Hg' & Hlt)]); [exists j; auto|].
  destruct (IH (m (f_st r j)) Hlt j eq_refl Hg') as (j' & Hj' & Hx).
  exists j'. split; [lia | exact Hx].
Qed.


Lemma null_seen_queue : forall s, wf smode emode s -> g_ist (s_g s) = ILive -> null_seen s -> blk s = true ->
  c_q (g_ci (s_g s)) <> [].
Proof.
  intros s W0 Hl G Hb. destruct (null_seen_W _ Hl G) as [A | B]; [intros E; rewrite E in A; exact A|].
  destruct (blocked_int _ _ (wf_ipc _ _ _ W0 Hl) Hb) as [Hw _]. rewrite (exiting_looks _ _ B) in Hw. discriminate.
Qed.

Section OneRun.
Variable r : frun.
Hypothesis R0 : R (f_st r 0).
Hypothesis Hfair : fair r.

Notation st := (f_st r).

(* Under weak fairness a shutdown completes: once a NULL Message is queued for (or taken by) the live internal thread,
   the thread eventually finishes -- whatever the other threads do meanwhile. *)
Theorem shutdown_eventually_completes : forall i, g_ist (s_g (st i)) = ILive -> null_seen (st i) ->
  exists j, i <= j /\ g_ist (s_g (st j)) = IExited.
Proof.
  intros i Hl G.
  apply (fair_eventually (fun s => g_ist (s_g s) = ILive /\ null_seen s) (fun s => g_ist (s_g s) = IExited) mu r);
    auto. split; [|split; [|split; [|split]]].
  - tauto.
  - (* the others: an append behind the NULL Message does not change the work ahead *)
    intros s lab s' ev Rs [Hl0 G0] Hni Hs.
    destruct (other_step _ _ _ _ Rs Hl0 Hni Hs) as (L' & I' & C1 & C2 & _ & Hq & Hp & _).
    pose proof (null_seen_W s Hl0 G0) as GW.
    split; [split; [exact L'|]|].
    + unfold null_seen in *. rewrite L', I'. rewrite Hl0 in G0.
      destruct G0 as [A | [B | C]]; auto. left. destruct Hq as [-> | [m0 ->]]; [exact A | apply in_or_app; left; exact A].
    + unfold mu. rewrite C1, C2, I'. apply Nat.add_le_mono; [|exact Hp].
      destruct Hq as [-> | [m0 ->]]; [lia | rewrite W_app by exact GW; lia].
  - intros s s' ev Rs [Hl0 G0] Hs.
    pose proof (R_wf _ Rs) as W0.
    assert (G' : null_seen s') by (eapply helper_keeps_null_seen; eauto; left; reflexivity).
    pose proof (int_step_unblocked _ _ Hl0 Hs) as Hb.
    destruct (int_progress _ W0 Hl0 Hb (reachable_ro _ Rs Hl0)) as (s1 & ev1 & Hs1 & Hc).
    rewrite Hs in Hs1. injection Hs1 as <- <-.
    destruct Hc as [Hx | [[Hx | (Hl' & Hq' & Hw')] | [Hl' Hlt]]]; auto.
    (* nothing left to receive and about to block: impossible with a NULL Message in sight *)
    exfalso. destruct G' as [A | [[_ B] | C]].
    + rewrite Hq' in A. exact A.
    + rewrite (exiting_looks _ _ B) in Hw'. discriminate.
    + congruence.
  - intros s Rs [Hl0 G0] Hb. apply (blocked_token absorb_n no_limit react Hnl any_label smode emode); auto.
    eapply null_seen_queue; eauto. apply R_wf; exact Rs.
  - intros s u s' ev Rs [Hl0 G0] Hb Pu Hs.
    pose proof (R_wf _ Rs) as W0.
    destruct (sig_strict _ u W0 Hl0 Hb (null_seen_queue _ W0 Hl0 G0 Hb) Pu) as (s1 & ev1 & Hs1 & _ & Q1 & _ & Hlt).
    rewrite Hs in Hs1. injection Hs1 as <- <-. apply mua_lt_mu; assumption.
Qed.

End OneRun.

Definition hdq (s : sys) : msg := hd None (c_q (g_ci (s_g s))).
(* the measure that accounts for the head of the queue only: what lies behind it may grow *)
Definition muh (s : sys) : nat := mua [hdq s] s.

Section OneRunH.
Variable r : frun.
Hypothesis R0 : R (f_st r 0).
Hypothesis Hfair : fair r.

Notation st := (f_st r).

(* Under weak fairness the Message at the head of the internal thread's queue is eventually received (unless the thread
   finishes first: a NULL Message taken earlier, or its MessageReceivedFromOwner asked to leave) -- whatever the other
   threads do meanwhile.  With the FIFO theorems: every queued Message is eventually received, in order. *)
Theorem queued_message_eventually_received : forall i m rest,
  g_ist (s_g (st i)) = ILive -> c_q (g_ci (s_g (st i))) = m :: rest ->
  exists j, i <= j /\ (g_ist (s_g (st j)) = IExited \/ c_rcvd (g_ci (s_g (st j))) = c_rcvd (g_ci (s_g (st i))) ++ [m]).
Proof.
  intros i m0 rest Hl Hq.
  set (rc := c_rcvd (g_ci (s_g (st i)))).
  apply (fair_eventually
           (fun s => g_ist (s_g s) = ILive /\ c_q (g_ci (s_g s)) <> [] /\ c_rcvd (g_ci (s_g s)) = rc /\ hdq s = m0)
           (fun s => g_ist (s_g s) = IExited \/ c_rcvd (g_ci (s_g s)) = rc ++ [m0]) muh r); auto.
  2:{ repeat split; auto. rewrite Hq. discriminate. unfold hdq. rewrite Hq. reflexivity. }
  split; [|split; [|split; [|split]]].
  - tauto.
  - (* the others: the head of the queue stays *)
    intros s lab s' ev Rs (Hl0 & Hq0 & Hrc & Hh) Hni Hs.
    destruct (other_step _ _ _ _ Rs Hl0 Hni Hs) as (L' & I' & C1 & C2 & Rc' & Hq' & Hp & _).
    assert (Hhd : hdq s' = hdq s /\ c_q (g_ci (s_g s')) <> []).
    { unfold hdq. destruct Hq' as [-> | [x ->]]; [auto|]. destruct (c_q (g_ci (s_g s))); [contradiction | split; [reflexivity | discriminate]]. }
    destruct Hhd as [Hh' Hne].
    split; [repeat split; auto; congruence|].
    unfold muh, mua. rewrite C1, C2, I', Hh'. apply Nat.add_le_mono_l. exact Hp.
  - intros s s' ev Rs (Hl0 & Hq0 & Hrc & Hh) Hs.
    pose proof (R_wf _ Rs) as W0.
    destruct (recv_cs_dec (l_pc (g_il (s_g s)))) as [[w Hp] | Hncs].
    + (* the dequeue *)
      left. right. unfold hdq in Hh. simpl in Hs. rewrite Hl0 in Hs.
      destruct (g_il (s_g s)) as [p k]. simpl in Hp. subst p. unfold ThreadQ.step in Hs. simpl in Hs.
      destruct (c_q (g_ci (s_g s))) as [|x q0]; [contradiction|]. simpl in Hh. inv Hs. simpl. congruence.
    + pose proof (int_step_unblocked _ _ Hl0 Hs) as Hb.
      destruct (int_step_any _ W0 Hl0 Hb (reachable_ro _ Rs Hl0) Hncs) as (s1 & ev1 & Hs1 & Hc).
      rewrite Hs in Hs1. injection Hs1 as <- <-.
      destruct Hc as [Hx | (Hl' & Q1 & Q3 & Hlt)]; [left; left; exact Hx | right].
      assert (Hh' : hdq s' = hdq s) by (unfold hdq; rewrite Q1; reflexivity).
      split; [repeat split; auto; congruence|]. unfold muh. rewrite Hh'. apply Hlt.
  - intros s Rs (Hl0 & Hq0 & _) Hb. apply (blocked_token absorb_n no_limit react Hnl any_label smode emode); auto.
  - intros s u s' ev Rs (Hl0 & Hq0 & _) Hb Pu Hs.
    pose proof (R_wf _ Rs) as W0.
    destruct (sig_strict _ u W0 Hl0 Hb Hq0 Pu) as (s1 & ev1 & Hs1 & _ & Q1 & _ & Hlt).
    rewrite Hs in Hs1. injection Hs1 as <- <-. unfold muh, hdq. rewrite Q1. apply Hlt.
Qed.

End OneRunH.

End Progress.

Example ex_null_seen : forall n nl, exists s, reachable_if false n nl react0 any_label true false s /\
  g_ist (s_g s) = ILive /\ null_seen s.
Proof.
  intros n nl. destruct (ex_shutdown_waiting n nl) as (s & Rs & _ & _ & Hl & Hq).
  exists s. split; [exact Rs|]. split; [exact Hl|]. left. rewrite Hq. left. reflexivity.
Qed.
