(* C10 -- the theorems about the reference-count transition system (Conc/RefCnt.v):
   every atomic step of any thread preserves the counting invariant [inv1] and raises no lifetime
   violation; hence in every reachable state of any number of threads running any programs the
   count of an object equals the number of counting references to it (slots plus the references in
   flight), a released object is referenced by nothing, and each object is released exactly as
   often as it was brought to life. *)
From Coq Require Import List Arith Bool Lia.
From Muscle Require Import Conc.Pool Conc.PoolProofs Conc.RefCnt Conc.RefInv Conc.RefExcl
  Conc.RefActs Conc.RefActs3.
Import ListNotations.
Local Open Scope nat_scope.

Definition prog_ok (o : op) : bool := match o with OAssignOld _ _ => false | _ => true end.

Section Main.
Variables N K : nat.

Lemma upd_app_last : forall A (h : list A) x y, upd (h ++ [x]) (length h) y = h ++ [y].
Proof. induction h as [|a h IH]; intros; cbn; auto. rewrite IH. reflexivity. Qed.

Lemma begin_inv : forall s t stk op prog, inv1 K s -> t < length (s_thr s) ->
  thr s t = mkThr stk [] (op :: prog) -> prog_ok op = true ->
  forall h' stk' todo' ok, begin_op K (s_heap s) stk op = (h', stk', todo', ok) ->
  inv1 K (with_thr s t (mkThr stk' todo' prog) h' (s_pool s)).
Proof.
  intros s t stk op prog I Ht E Hop h' stk' todo' ok Hb.
  assert (Es : t_stk (thr s t) = stk) by (rewrite E; auto).
  assert (Hskip : inv1 K (with_thr s t (mkThr stk [] prog) (s_heap s) (s_pool s))).
  { apply (begin_core K s t stk op prog []); auto. apply acts_nil. }
  destruct op as [i pooled|dst src|dst src|dst src|l|a b|dst src|i v|]; cbn [begin_op] in Hb; try discriminate.
  - (* ONew *)
    destruct (i <? length stk) eqn:Ei; [|injection Hb as <- <- <- <-; exact Hskip]. apply Nat.ltb_lt in Ei.
    destruct pooled.
    + injection Hb as <- <- <- <-. apply (begin_core K s t stk (ONew i true) prog); auto.
      apply ok_plain; [apply sh_single; exact Logic.I|]. intros b [<-|[]]. cbn. auto.
    + injection Hb as <- <- <- <-. set (x := fresh_obj K false Dead). set (o := length (s_heap s)).
      pose proof (append_core K s [x] (s_pool s) I) as I1.
      assert (Hx : Forall (inert K) [x]) by (constructor; [apply fresh_inert; auto|constructor]).
      specialize (I1 Hx). set (s1 := mkSt (s_heap s ++ [x]) (s_thr s) (s_pool s)) in *.
      assert (Hox : hobj s1 o = x) by (unfold hobj, s1, get_obj, o; cbn [s_heap]; apply nth_app_new).
      assert (Hcur : nth i stk None <> Some (o, true)).
      { intros Hc. assert (Hc' : nth i (t_stk (thr s t)) None = Some (o, true)) by (rewrite E; auto).
        destruct (held_live K s t i o I Ht Hc') as (Hl & _). apply live_lt in Hl. unfold o in Hl. lia. }
      destruct (setref_fresh (RStk i) _ o Hcur) as (mid & Eacts & Hmid). fold o.
      match goal with |- inv1 _ (with_thr _ _ {| t_stk := _; t_todo := ?T; t_prog := _ |} _ _) =>
        change T with (setref_acts (RStk i) (nth i stk None) (Some o) true None) end.
      rewrite Eacts.
      pose proof (birth_core K s1 t stk [] (ONew i false :: prog) prog o (RStk i) mid (s_pool s) I1 Ht E) as HB.
      rewrite Hox in HB. replace (upd (s_heap s1) o (born x)) with (s_heap s ++ [born x]) in HB
        by (unfold s1, o; cbn [s_heap]; symmetry; apply upd_app_last).
      apply HB; auto.
      * unfold s1, o; cbn [s_heap]. rewrite app_length. cbn. lia.
  - (* OAssign *)
    destruct (resolve_r (s_heap s) stk src) as [[rs p]|] eqn:Er; [|injection Hb as <- <- <- <-; exact Hskip].
    destruct (resolve_w (s_heap s) stk dst (ptr p)) as [[rd q]|] eqn:Ew; injection Hb as <- <- <- <-; [|exact Hskip].
    destruct (resolve_r_spec Er) as (Ep & Hv). destruct (resolve_w_spec Ew) as (Eq & W & NS).
    apply (begin_core K s t stk (OAssign dst src) prog); auto.
    destruct p as [[o c]|]; cbn [ptr counting].
    + apply setref_ok; auto. intros ->. apply (src_justifies K s t stk rs o I Ht Es); auto.
    + apply reset_ok; auto.
  - (* OAlias *)
    destruct (resolve_r (s_heap s) stk src) as [[rs p]|] eqn:Er; [|injection Hb as <- <- <- <-; exact Hskip].
    destruct (resolve_w (s_heap s) stk dst (ptr p)) as [[rd q]|] eqn:Ew; injection Hb as <- <- <- <-; [|exact Hskip].
    destruct (resolve_w_spec Ew) as (Eq & W & NS).
    apply (begin_core K s t stk (OAlias dst src) prog); auto.
    destruct p as [[o c]|]; cbn [ptr counting].
    + apply setref_ok; auto. discriminate.
    + apply reset_ok; auto.
  - (* OReset *)
    destruct (resolve_w (s_heap s) stk l None) as [[rd q]|] eqn:Ew; injection Hb as <- <- <- <-; [|exact Hskip].
    destruct (resolve_w_spec Ew) as (Eq & W & NS).
    apply (begin_core K s t stk (OReset l) prog); auto. apply reset_ok; auto.
  - (* OSwap *)
    destruct (begin_swap K Hb) as (-> & [(-> & ->)|(ra0 & rb0 & h1 & stk1 & Wa & Wb & _ & _ & Eab & Hw1 & Hw2)]); [exact Hskip|].
    destruct (wloc_valid K s t stk ra0 I Ht Es Wa) as (Va & Ta). destruct (wloc_valid K s t stk rb0 I Ht Es Wb) as (Vb & Tb).
    destruct (write_facts Hw1 Va) as (L1 & S1 & F1 & G1 & B1 & R1 & O1).
    assert (Vb1 : loc_valid h1 stk1 rb0).
    { destruct rb0 as [i|q j]; cbn in Vb |- *; [lia|]. destruct (F1 q) as (_ & _ & _ & _ & _ & ->). lia. }
    destruct (write_facts Hw2 Vb1) as (L2 & S2 & F2 & G2 & B2 & R2 & O2).
    apply (slots_core K s t stk [] (OSwap a b :: prog) stk' [] prog h' (s_pool s) (fun _ => 0)); auto; cbn [sumf].
    + lia.
    + intros z. destruct (F1 z) as (A1 & A2 & A3 & A4 & A5 & A6). destruct (F2 z) as (C1 & C2 & C3 & C4 & C5 & C6).
      unfold hobj. rewrite C1, C2, C3, C4, C5, C6. auto 10.
    + intros z. destruct (mem_of ra0 z) eqn:Ea; [left; destruct (Ta z Ea); auto|].
      destruct (mem_of rb0 z) eqn:Eb; [left; destruct (Tb z Eb); auto|]. right. rewrite (G2 z Eb), (G1 z Ea). reflexivity.
    + intros o. pose proof (B1 o) as X1. pose proof (B2 o) as X2. rewrite (O1 rb0 Eab) in X2. lia.
    + intros z Hz. lia.
    + apply (sh_frames []). reflexivity.
    + intros x [].
  - (* OConstCast *)
    destruct (resolve_r (s_heap s) stk src) as [[rs p]|] eqn:Er; [|injection Hb as <- <- <- <-; exact Hskip].
    destruct (resolve_w (s_heap s) stk dst (ptr p)) as [[rd q]|] eqn:Ew; injection Hb as <- <- <- <-; [|exact Hskip].
    destruct (resolve_r_spec Er) as (Ep & Hv). destruct (resolve_w_spec Ew) as (Eq & W & NS).
    apply (begin_core K s t stk (OConstCast dst src) prog); auto.
    destruct p as [[o c]|]; cbn [ptr counting castassign_acts].
    + apply cast_ok; auto. intros ->. apply (src_justifies K s t stk rs o I Ht Es); auto.
    + apply reset_ok; auto.
  - (* OSetVal *)
    destruct (nth i stk None) as [[q [|]]|] eqn:Eq; try (injection Hb as <- <- <- <-; exact Hskip).
    destruct (o_cnt (get_obj (s_heap s) q) =? 1) eqn:Ec; injection Hb as <- <- <- <-; [|exact Hskip].
    assert (Hq' : nth i (t_stk (thr s t)) None = Some (q, true)) by (rewrite E; auto).
    destruct (held_live K s t i q I Ht Hq') as (Hl & _). pose proof (live_lt _ _ Hl) as Hlt.
    apply (point_core K s t stk [] (OSetVal i v :: prog) [] prog q (set_val (hobj s q) v)); auto.
    + (* quiet *) apply live_quiet. exact Hl.
    + (* why t may touch q *) left. eauto.
    + (* not live *) intros Hz. change (is_live (hobj s q) = false) in Hz. congruence.
    + (* ghost *) apply (i_ghost K s I q Hlt).
    + (* shape *) apply (sh_frames []). reflexivity.
    + (* own actions *) intros b [].
  - (* ODrain *)
    injection Hb as <- <- <- <-. apply (begin_core K s t stk ODrain prog); auto.
    apply ok_plain; [apply sh_single; exact Logic.I|]. intros b [<-|[]]. cbn. auto.
Qed.

(* ---- one step ---- *)

Definition progs_ok (s : state) : Prop := forall th, In th (s_thr s) -> forallb prog_ok (t_prog th) = true.

Lemma in_upd : forall A (l : list A) i x y, In y (upd l i x) -> y = x \/ In y l.
Proof.
  induction l as [|h t IH]; intros [|i] x y H; cbn in *; auto.
  - destruct H; auto.
  - destruct H as [H|H]; auto. destruct (IH _ _ _ H); auto.
Qed.

Lemma thr_in : forall s t, t < length (s_thr s) -> In (thr s t) (s_thr s).
Proof. intros. unfold thr. apply nth_In; auto. Qed.

Theorem step_inv1 : forall s t, inv1 K s -> progs_ok s -> t < length (s_thr s) ->
  inv1 K (fst (step N K s t)) /\ progs_ok (fst (step N K s t)) /\ bad124 (snd (step N K s t)) = false.
Proof.
  intros s t I HP Ht. unfold step. fold (thr s t).
  pose proof (HP _ (thr_in s t Ht)) as Hprog.
  destruct (thr s t) as [stk todo prog] eqn:E. cbn [t_todo t_stk t_prog] in *.
  destruct todo as [|a rest].
  - destruct prog as [|op prog].
    + cbn. auto.
    + destruct (begin_op K (s_heap s) stk op) as [[[h' stk'] todo'] ok] eqn:Hb. cbn [fst snd].
      cbn in Hprog. apply andb_true_iff in Hprog. destruct Hprog as (Hop & Hrest).
      split; [|split; [|reflexivity]].
      * apply (begin_inv s t stk op prog I Ht E Hop h' stk' todo' ok Hb).
      * intros th Hin. cbn [s_thr] in Hin. apply in_upd in Hin. destruct Hin as [->|Hin]; auto.
  - assert (C : ctx K s t stk a rest prog) by (constructor; auto).
    destruct (do_act N K (s_heap s) (s_pool s) stk a rest) as [[[[h' stk'] todo'] p'] ev] eqn:Hdo. cbn [fst snd].
    assert (HPP : progs_ok (mkSt h' (upd (s_thr s) t (mkThr stk' todo' prog)) p')).
    { intros th Hin. cbn [s_thr] in Hin. apply in_upd in Hin. destruct Hin as [->|Hin]; auto. }
    assert (Hgoal : inv1 K (with_thr s t (mkThr stk' todo' prog) h' p') /\ bad124 ev = false).
    { destruct a.
      - eapply act_inc; eauto.
      - eapply act_dec; eauto.
      - eapply act_deckeep; eauto.
      - eapply act_take; eauto.
      - eapply act_untag; eauto.
      - eapply act_store; eauto.
      - eapply act_rel; eauto.
      - eapply act_poolobt; eauto.
      - eapply act_drain; eauto.
      - eapply act_slabdel; eauto. }
    destruct Hgoal as (G1 & G2). split; [exact G1|split; auto].
Qed.

(* ---- all reachable states ---- *)

Inductive reachable (s0 : state) : state -> Prop :=
| r_refl : reachable s0 s0
| r_step : forall s t, reachable s0 s -> t < length (s_thr s) -> reachable s0 (fst (step N K s t)).

Theorem reachable_inv1 : forall s0 s, inv1 K s0 -> progs_ok s0 -> reachable s0 s -> inv1 K s /\ progs_ok s.
Proof.
  intros s0 s I0 P0 H. induction H as [|s t H IH Ht]; auto.
  destruct IH as (I & P). destruct (step_inv1 s t I P Ht) as (A & B & _). auto.
Qed.

Lemma init_sums : forall stksize progs o,
  sumf (thr_units o) (map (fun pr => mkThr (repeat None stksize) [] pr) progs) = 0 /\
  sumf (thr_debts o) (map (fun pr => mkThr (repeat None stksize) [] pr) progs) = 0 /\
  sumf (fun t => sumf (rel_count o) (t_todo t)) (map (fun pr => mkThr (repeat None stksize) [] pr) progs) = 0.
Proof.
  intros stksize progs o. induction progs as [|p ps (IH1 & IH2 & IH3)]; [cbn; auto|].
  cbn [map sumf]. rewrite IH1, IH2, IH3. unfold thr_units. cbn [t_stk t_todo sumf]. rewrite refs_in_none. auto.
Qed.

Lemma init_inv1 : forall max stksize progs, inv1 K (init_state max stksize progs).
Proof.
  intros max stksize progs. unfold init_state.
  assert (Hu : forall o, sumf (thr_units o) (map (fun pr => mkThr (repeat None stksize) [] pr) progs) = 0) by (intros; apply init_sums).
  assert (Hd : forall o, sumf (thr_debts o) (map (fun pr => mkThr (repeat None stksize) [] pr) progs) = 0) by (intros; apply init_sums).
  assert (Hr : forall o, sumf (fun t => sumf (rel_count o) (t_todo t)) (map (fun pr => mkThr (repeat None stksize) [] pr) progs) = 0) by (intros; apply init_sums).
  assert (Hget : forall o, get_obj [] o = dobj) by (intros [|o]; reflexivity).
  assert (Hth : forall t, t < length (map (fun pr => mkThr (repeat None stksize) [] pr) progs) ->
            t_todo (nth t (map (fun pr => mkThr (repeat None stksize) [] pr) progs) dthr) = []).
  { intros t Ht. rewrite map_length in Ht.
    rewrite (nth_indep _ dthr (mkThr (repeat None stksize) [] [])) by (rewrite map_length; auto).
    rewrite (map_nth (fun pr => mkThr (repeat None stksize) [] pr)). reflexivity. }
  constructor; cbn [s_heap s_thr s_pool]; unfold units, debts, rels, hobj, thr; cbn [s_heap s_thr].
  - intros o. rewrite Hu, Hd, Hget. reflexivity.
  - intros o _. rewrite Hu. reflexivity.
  - intros o Ho. cbn in Ho. lia.
  - intros t Ht. rewrite (Hth t Ht). apply (sh_frames []). reflexivity.
  - intros t a Ht Hin. rewrite (Hth t Ht) in Hin. destruct Hin.
  - intros o. rewrite Hr, Hget. reflexivity.
  - intros o Ho. cbn in Ho. lia.
Qed.

(* C10, the counting protocol: for any number of threads running any programs (of the repaired
   operations), from any state satisfying the invariant - in particular the initial one - every
   reachable state satisfies:
     (1) count o + increments in flight for o = counting references to o (stack slots of all threads,
         member slots of all objects, references held by operations in flight);
     (2) an object that is not live (being released, in the pool, destroyed) is referenced by no
         counting reference at all;
     (3) no step of any thread increments or decrements a non-live object, decrements below zero, or
         runs a release step on an object that is not being released (so nothing is released twice);
     (4) each object has been brought to life exactly once more than it was released iff it is live. *)
Theorem free_once_after_last : forall s0 s, inv1 K s0 -> progs_ok s0 -> reachable s0 s ->
  (forall o, o_cnt (hobj s o) + debts o s = units o s) /\
  (forall o, is_live (hobj s o) = false -> units o s = 0 /\ o_cnt (hobj s o) = 0) /\
  (forall t, t < length (s_thr s) -> bad124 (snd (step N K s t)) = false) /\
  (forall o, o < length (s_heap s) -> o_births (hobj s o) = o_deaths (hobj s o) + (if is_live (hobj s o) then 1 else 0)).
Proof.
  intros s0 s I0 P0 H. destruct (reachable_inv1 s0 s I0 P0 H) as (I & P).
  split; [|split; [|split]].
  - intros o. symmetry. apply (i_count K s I).
  - intros o Ho. pose proof (i_nolive K s I o Ho). pose proof (i_count K s I o). lia.
  - intros t Ht. destruct (step_inv1 s t I P Ht) as (_ & _ & B). exact B.
  - intros o Ho. apply (i_ghost K s I o Ho).
Qed.

(* a counting reference in any slot points to a live object whose count is at least the number of
   counting slots that hold it: nothing is released while a reference to it exists *)
Theorem never_early : forall s0 s, inv1 K s0 -> progs_ok s0 -> reachable s0 s ->
  forall o, slots o s <= o_cnt (hobj s o) /\ (1 <= slots o s -> is_live (hobj s o) = true).
Proof.
  intros s0 s I0 P0 H o. destruct (reachable_inv1 s0 s I0 P0 H) as (I & P).
  split; [apply (cnt_ge_slots K); auto|]. intros Hs. apply (live_of_units K); auto. pose proof (slots_le_units s o). lia.
Qed.

(* ---- schedules ---- *)

Lemma step_len : forall s t, length (s_thr (fst (step N K s t))) = length (s_thr s).
Proof.
  intros s t. unfold step. destruct (t_todo (nth t (s_thr s) dthr)) as [|a rest].
  - destruct (t_prog (nth t (s_thr s) dthr)) as [|op prog]; auto.
    destruct (begin_op K (s_heap s) (t_stk (nth t (s_thr s) dthr)) op) as [[[h' stk'] todo'] ok]. cbn. apply upd_length.
  - destruct (do_act N K (s_heap s) (s_pool s) (t_stk (nth t (s_thr s) dthr)) a rest) as [[[[h' stk'] todo'] p'] ev]. cbn. apply upd_length.
Qed.

Lemma run_sched_reachable : forall sched s0 s, reachable s0 s -> Forall (fun t => t < length (s_thr s)) sched ->
  reachable s0 (fst (run_sched N K s sched)).
Proof.
  induction sched as [|t r IH]; intros s0 s H Hs; cbn [run_sched]; auto.
  inversion Hs as [|x l Ht Hr]; subst.
  destruct (step N K s t) as [s1 ev] eqn:E1. destruct (run_sched N K s1 r) as [s2 evs] eqn:E2. cbn [fst].
  assert (Hs1 : s1 = fst (step N K s t)) by (rewrite E1; auto).
  assert (R1 : reachable s0 s1) by (rewrite Hs1; apply r_step; auto).
  specialize (IH s0 s1 R1). rewrite E2 in IH. apply IH.
  rewrite Hs1, step_len. exact Hr.
Qed.

(* no schedule of a program of repaired operations produces a lifetime violation event *)
Theorem run_sched_safe : forall sched s, inv1 K s -> progs_ok s -> Forall (fun t => t < length (s_thr s)) sched ->
  forallb (fun e => negb (bad124 e)) (snd (run_sched N K s sched)) = true.
Proof.
  induction sched as [|t r IH]; intros s I P Hs; cbn [run_sched]; auto.
  inversion Hs as [|x l Ht Hr]; subst.
  destruct (step_inv1 s t I P Ht) as (I1 & P1 & B1).
  destruct (step N K s t) as [s1 ev] eqn:E1. destruct (run_sched N K s1 r) as [s2 evs] eqn:E2. cbn [snd fst] in *.
  specialize (IH s1 I1 P1). rewrite E2 in IH. cbn [snd] in IH. cbn [forallb]. rewrite B1. cbn [negb andb]. apply IH.
  replace s1 with (fst (step N K s t)) by (rewrite E1; auto). rewrite step_len. exact Hr.
Qed.

End Main.

(* Thread creation preserves the counting invariant: [fork_state] (the parent, between two
   operations, hands each new thread a copy of its stack and counts every copied counting reference). *)
Section Fork.
Variable K : nat.

Lemma count_refs_refs_in : forall o l, count_refs o l = refs_in o l.
Proof.
  induction l as [|[[q [|]]|] t IH]; cbn; auto; unfold refs_in in *; cbn; rewrite IH; auto.
Qed.

Lemma bump_length : forall h b n stk, length (bump h b n stk) = length h.
Proof. induction h as [|ob t IH]; intros; cbn; auto. Qed.

Lemma bump_nth : forall h b n stk i, i < length h ->
  nth i (bump h b n stk) dobj = set_cnt (nth i h dobj) (o_cnt (nth i h dobj) + n * count_refs (b + i) stk).
Proof.
  induction h as [|ob t IH]; intros b n stk [|i] Hi; cbn in *; try lia.
  - rewrite Nat.add_0_r. reflexivity.
  - rewrite IH by lia. replace (S b + i) with (b + S i) by lia. reflexivity.
Qed.

Lemma refs_in_zero : forall o l, (forall i, nth i l None <> Some (o, true)) -> refs_in o l = 0.
Proof.
  intros o l H. unfold refs_in. apply sumf_zero. intros x Hx. apply In_nth with (d := None) in Hx.
  destruct Hx as (i & Hi & E). specialize (H i). rewrite E in H. destruct x as [[q [|]]|]; cbn; auto.
  destruct (q =? o) eqn:Eq; auto. apply Nat.eqb_eq in Eq. subst. congruence.
Qed.

Theorem fork_inv1 : forall s progs, inv1 K s -> 0 < length (s_thr s) -> t_todo (thr s 0) = [] ->
  inv1 K (fork_state s progs).
Proof.
  intros s progs I H0 Htodo. unfold fork_state. fold (thr s 0).
  set (stk0 := t_stk (thr s 0)). set (n := length progs).
  set (h' := bump (s_heap s) 0 n stk0).
  set (new := map (fun pr => mkThr stk0 [] pr) progs).
  set (s' := mkSt h' (s_thr s ++ new) (s_pool s)).
  assert (Hr0 : forall o, is_live (hobj s o) = false -> refs_in o stk0 = 0).
  { intros o Hl. apply refs_in_zero. intros i Hi. apply (dead_no_stack K s o 0 i I Hl H0 Hi). }
  assert (Hget : forall z, hobj s' z = set_cnt (hobj s z) (o_cnt (hobj s z) + n * refs_in z stk0)).
  { intros z. unfold hobj, s', h', get_obj; cbn [s_heap]. destruct (lt_dec z (length (s_heap s))) as [Hl|Hl].
    - rewrite bump_nth by auto. rewrite count_refs_refs_in. reflexivity.
    - rewrite nth_overflow by (rewrite bump_length; lia). rewrite (nth_overflow (s_heap s)) by lia.
      assert (E : refs_in z stk0 = 0).
      { apply Hr0. unfold hobj, get_obj. rewrite nth_overflow by lia. reflexivity. }
      rewrite E. rewrite Nat.mul_0_r. reflexivity. }
  assert (Hnew_u : forall o, sumf (thr_units o) new = n * refs_in o stk0).
  { intros o. unfold new, n. clear. induction progs as [|p ps IH]; cbn [map sumf length]; auto.
    rewrite IH. unfold thr_units at 1. cbn [t_stk t_todo sumf]. lia. }
  assert (Hnew_d : forall o, sumf (thr_debts o) new = 0).
  { intros o. unfold new. clear. induction progs as [|p ps IH]; cbn [map sumf]; auto. }
  assert (Hnew_r : forall o, sumf (fun t => sumf (rel_count o) (t_todo t)) new = 0).
  { intros o. unfold new. clear. induction progs as [|p ps IH]; cbn [map sumf]; auto. }
  assert (Hheap : forall o, sumf (obj_units o) h' = sumf (obj_units o) (s_heap s)).
  { intros o. apply (sumf_nth_ext _ _ dobj); [reflexivity|]. intros i.
    change (obj_units o (hobj s' i) = obj_units o (hobj s i)). rewrite Hget. reflexivity. }
  assert (Hunits : forall o, units o s' = units o s + n * refs_in o stk0).
  { intros o. unfold units, s'; cbn [s_thr s_heap]. rewrite sumf_app, Hnew_u, Hheap. lia. }
  assert (Hdebts : forall o, debts o s' = debts o s).
  { intros o. unfold debts, s'; cbn [s_thr]. rewrite sumf_app, Hnew_d. lia. }
  assert (Hthr_old : forall u, u < length (s_thr s) -> thr s' u = thr s u).
  { intros u Hu. unfold thr, s'; cbn [s_thr]. apply app_nth1; auto. }
  assert (Hthr_new : forall u, length (s_thr s) <= u -> u < length (s_thr s ++ new) -> t_todo (thr s' u) = []).
  { intros u Hu Hu2. unfold thr, s'; cbn [s_thr]. rewrite app_nth2 by lia.
    rewrite app_length in Hu2. unfold new in *. rewrite map_length in Hu2.
    rewrite (nth_indep _ dthr (mkThr stk0 [] [])) by (rewrite map_length; lia).
    rewrite (map_nth (fun pr => mkThr stk0 [] pr)). reflexivity. }
  constructor.
  - intros o. rewrite Hunits, Hdebts, Hget. cbn [o_cnt set_cnt]. pose proof (i_count K s I o). lia.
  - intros o Ho. rewrite Hget in Ho. change (is_live (set_cnt (hobj s o) (o_cnt (hobj s o) + n * refs_in o stk0))) with (is_live (hobj s o)) in Ho.
    rewrite Hunits, (Hr0 o Ho), (i_nolive K s I o Ho). lia.
  - intros o Ho. unfold s', h' in Ho; cbn [s_heap] in Ho. rewrite bump_length in Ho. rewrite Hget. apply (i_mem K s I o Ho).
  - intros u Hu. unfold s' in Hu; cbn [s_thr] in Hu. destruct (lt_dec u (length (s_thr s))) as [Hl|Hl].
    + rewrite Hthr_old by auto. apply (i_shape K s I u Hl).
    + rewrite Hthr_new by (auto; lia). apply (sh_frames []). reflexivity.
  - intros u a Hu Hin. unfold s' in Hu; cbn [s_thr] in Hu. destruct (lt_dec u (length (s_thr s))) as [Hl|Hl].
    2:{ rewrite Hthr_new in Hin by (auto; lia). destruct Hin. }
    rewrite Hthr_old in * by auto.
    assert (Hu0 : u <> 0) by (intros ->; rewrite Htodo in Hin; destruct Hin).
    apply (acts_kept K s s'); auto.
    + intros q i Hq. rewrite Hget. split; [reflexivity|]. intros Hc. cbn [o_cnt set_cnt]. rewrite refs_in_zero; [lia|].
      intros i0 Hi0. apply (private_other_thread K s u i q I Hl Hq Hc 0 i0 H0 (not_eq_sym Hu0) Hi0).
    + intros o _ A1 A2 A3. rewrite Hget, Hunits. cbn [o_cnt set_cnt]. rewrite refs_in_zero; [split; [exact A1|lia]|].
      intros i0 Hi0. apply (zero_no_stack K s o 0 i0 I A2 H0 Hi0).
    + intros o m _. rewrite Hget. auto.
  - intros o. unfold rels, s'; cbn [s_thr]. rewrite sumf_app, Hnew_r, Hget. pose proof (i_rels K s I o) as HR. unfold rels in HR.
    change (is_releasing (set_cnt (hobj s o) (o_cnt (hobj s o) + n * refs_in o stk0))) with (is_releasing (hobj s o)). lia.
  - intros o Ho. unfold s', h' in Ho; cbn [s_heap] in Ho. rewrite bump_length in Ho. rewrite Hget. apply (i_ghost K s I o Ho).
Qed.

End Fork.

(* ---- the unrepaired order (F11), refuted ---- *)

(* two objects X (slot 0) and Y (slot 1); X.m0 := Y; the stack reference to Y is dropped;
   then  slot0 = slot0()->m0  with SetRef in the unrepaired order: the release of X cascades into Y,
   and Y is then incremented although it has been destroyed *)
Definition f11_prog (repaired : bool) : list op :=
  [ONew 0 false; ONew 1 false; OAssign (LMem 0 0) (LStk 1); OReset (LStk 1);
   if repaired then OAssign (LStk 0) (LMem 0 0) else OAssignOld (LStk 0) (LMem 0 0)].

Lemma old_order_refuted :
  exists sched, existsb ev_is_bad (snd (run_sched 1 2 (init_state 0 4 [f11_prog false]) sched)) = true.
Proof. exists (repeat 0 40). vm_compute. reflexivity. Qed.

Lemma repaired_order_same_history_fine :
  existsb ev_is_bad (snd (run_sched 1 2 (init_state 0 4 [f11_prog true]) (repeat 0 40))) = false.
Proof. vm_compute. reflexivity. Qed.

(* non-vacuity: a reachable state with two threads sharing objects, counts above one, a pooled
   object recycled and a slab created *)
Definition demo_progs : list (list op) :=
  [ [ONew 0 true; ONew 1 false; OAssign (LMem 0 0) (LStk 1); OAssign (LStk 2) (LStk 0); OAlias (LStk 3) (LStk 1); OReset (LStk 1)];
    [ONew 0 true; OAssign (LStk 1) (LStk 0); OConstCast (LStk 2) (LStk 1); OReset (LStk 0); OReset (LStk 1); OReset (LStk 2); ONew 3 true] ].

Definition demo_sched : list nat := [0;1;0;1;0;1;0;1;0;1;0;1;0;1;0;1;0;1;0;1;0;1;0;1;0;1;0;1;0;1;1;1;1;1;1;1;1;1;1;1;1;1;1;1;0;0;0;0;0;0].

Example demo_reachable :
  let s0 := init_state 1 4 demo_progs in
  let s := fst (run_sched 2 2 s0 demo_sched) in
  inv1 2 s0 /\ progs_ok s0 /\ reachable 2 2 s0 s /\
  2 <= length (s_heap s) /\ o_cnt (hobj s 1) = 2 /\ existsb (fun ob => 1 <=? o_deaths ob) (s_heap s) = true.
Proof.
  cbn zeta. split; [apply init_inv1|]. split.
  - intros th Hin. cbn in Hin. destruct Hin as [<-|[<-|[]]]; reflexivity.
  - split.
    + apply run_sched_reachable; [apply r_refl|]. apply Forall_forall. intros t Ht. cbn.
      unfold demo_sched in Ht. repeat (destruct Ht as [<-|Ht]; [lia|]). destruct Ht.
    + vm_compute. repeat split; auto.
Qed.
