(* C10 -- proofs about the ObjectPool bookkeeping model (Conc/Pool.v): the invariant [pool_wf]
   (the conditions ObjectPool::PerformSanityCheck tests, plus _curPoolSize = number of free nodes,
   disjoint slabs, "slabs with free nodes precede full slabs") is preserved by every critical
   section; ObtainObject returns an object that was free (or belongs to a brand-new slab) and is in
   use afterwards; a slab handed out for deletion holds only free objects. *)
From Coq Require Import List Arith Bool Lia Permutation NArith.
From Muscle Require Import Gen.Consts Conc.Pool.
Import ListNotations.
Local Open Scope nat_scope.

(* ---- upd ---- *)

Lemma upd_length : forall A (l : list A) i v, length (upd l i v) = length l.
Proof. induction l as [|h t IH]; intros [|i] v; cbn; auto. Qed.

Lemma nth_upd_same : forall A (l : list A) i v d, i < length l -> nth i (upd l i v) d = v.
Proof. induction l as [|h t IH]; intros [|i] v d H; cbn in *; try lia; auto. apply IH; lia. Qed.

Lemma nth_upd_other : forall A (l : list A) i j v d, i <> j -> nth j (upd l i v) d = nth j l d.
Proof. induction l as [|h t IH]; intros [|i] [|j] v d H; cbn; auto; try lia. Qed.

Lemma upd_oob : forall A (l : list A) i v, length l <= i -> upd l i v = l.
Proof. induction l as [|h t IH]; intros [|i] v H; cbn in *; auto; try lia. f_equal; apply IH; lia. Qed.

(* ---- free-list chains ---- *)

Inductive chain (next : list (option nat)) : option nat -> list nat -> Prop :=
| ch_nil : chain next None []
| ch_cons : forall i l, i < length next -> chain next (nth i next None) l -> chain next (Some i) (i :: l).

Lemma chain_det : forall next c l1, chain next c l1 -> forall l2, chain next c l2 -> l1 = l2.
Proof.
  induction 1 as [|i l Hi Hc IH]; intros l2 H2; inversion H2; subst; auto.
  f_equal; auto.
Qed.

Lemma chain_bound : forall next c l, chain next c l -> forall x, In x l -> x < length next.
Proof. induction 1 as [|i l Hi Hc IH]; intros x Hx; cbn in Hx; [tauto|]. destruct Hx; subst; auto. Qed.

Lemma chain_upd_notin : forall next c l, chain next c l -> forall i v, ~ In i l -> chain (upd next i v) c l.
Proof.
  induction 1 as [|k l Hk Hc IH]; intros i v Hn; constructor.
  - rewrite upd_length; auto.
  - rewrite nth_upd_other by (cbn in Hn; intuition). apply IH. cbn in Hn; intuition.
Qed.

Lemma walk_chain : forall next c l, chain next c l -> forall fuel, length l <= fuel -> walk fuel next c = l.
Proof.
  induction 1 as [|i l Hi Hc IH]; intros fuel Hf.
  - destruct fuel; reflexivity.
  - destruct fuel as [|f]; cbn in Hf; [lia|]. cbn. f_equal. apply IH; lia.
Qed.

(* ---- slab invariant ---- *)

Definition slab_wf (N : nat) (s : slab) : Prop :=
  length (sl_next s) = N /\
  exists l, chain (sl_next s) (sl_first s) l /\ NoDup l /\ length l + sl_inuse s = N.

Lemma slab_wf_free : forall {N s}, slab_wf N s ->
  chain (sl_next s) (sl_first s) (free_nodes N s) /\ NoDup (free_nodes N s) /\ length (free_nodes N s) + sl_inuse s = N.
Proof.
  intros N s (Hl & l & Hc & Hn & Hlen). unfold free_nodes.
  rewrite (walk_chain _ _ _ Hc) by lia. auto.
Qed.

Lemma free_nodes_bound : forall N s x, slab_wf N s -> In x (free_nodes N s) -> x < N.
Proof.
  intros N s x Hw Hx. destruct (slab_wf_free Hw) as (Hc & _ & _).
  destruct Hw as (Hl & _). rewrite <- Hl. eapply chain_bound; eauto.
Qed.

Lemma init_next_length : forall N, length (init_next N) = N.
Proof. intros; unfold init_next; rewrite map_length, seq_length; auto. Qed.

Lemma init_next_nth : forall N i, i < N -> nth i (init_next N) None = match i with O => None | S j => Some j end.
Proof.
  intros N i H. unfold init_next.
  set (f := fun i => match i with O => @None nat | S j => Some j end).
  rewrite (nth_indep _ None (f 0)) by (rewrite map_length, seq_length; auto).
  rewrite map_nth. rewrite seq_nth by auto. reflexivity.
Qed.

(* the free list of a new slab is N-1, N-2, .., 0 *)
Lemma init_chain : forall N k, k <= N ->
  chain (init_next N) (match k with O => None | S j => Some j end) (rev (seq 0 k)).
Proof.
  intros N k. induction k as [|k IH]; intros Hk.
  - constructor.
  - replace (rev (seq 0 (S k))) with (k :: rev (seq 0 k)).
    2:{ rewrite seq_S. rewrite rev_app_distr. reflexivity. }
    constructor.
    + rewrite init_next_length; lia.
    + rewrite init_next_nth by lia. apply IH; lia.
Qed.

Lemma new_slab_wf : forall N id base, slab_wf N (new_slab N id base).
Proof.
  intros N id base. split; [apply init_next_length|].
  exists (rev (seq 0 N)). cbn. split; [apply init_chain; lia|]. split.
  - apply NoDup_rev. apply seq_NoDup.
  - rewrite rev_length, seq_length. lia.
Qed.

Lemma new_slab_free : forall N id base, free_nodes N (new_slab N id base) = rev (seq 0 N).
Proof.
  intros. unfold free_nodes. cbn. apply walk_chain; [apply init_chain; lia|].
  rewrite rev_length, seq_length; lia.
Qed.

(* pop: the head of the free list is taken *)
Lemma slab_pop_spec : forall N s, slab_wf N s ->
  match slab_pop s with
  | None => free_nodes N s = [] /\ sl_first s = None
  | Some (s', i) =>
      exists l, free_nodes N s = i :: l /\ free_nodes N s' = l /\ slab_wf N s' /\
                sl_id s' = sl_id s /\ sl_base s' = sl_base s /\ sl_inuse s' = S (sl_inuse s) /\ i < N /\ ~ In i l
  end.
Proof.
  intros N s Hw. destruct (slab_wf_free Hw) as (Hc & Hnd & Hlen).
  destruct Hw as (Hl & _). unfold slab_pop.
  destruct (sl_first s) as [i|] eqn:Hf.
  - inversion Hc as [|i' l Hi Hc' E1 E2]; subst i'.
    exists l. split; [auto|].
    assert (Hni : ~ In i l) by (rewrite <- E2 in Hnd; inversion Hnd; auto).
    assert (Hc2 : chain (upd (sl_next s) i None) (nth i (sl_next s) None) l) by (apply chain_upd_notin; auto).
    assert (Hnd2 : NoDup l) by (rewrite <- E2 in Hnd; inversion Hnd; auto).
    assert (Hlen2 : length l + S (sl_inuse s) = N) by (rewrite <- E2 in Hlen; cbn in Hlen; lia).
    assert (HiN : i < N) by (rewrite <- Hl; exact Hi).
    split.
    + unfold free_nodes; cbn. apply walk_chain; auto. lia.
    + split; [|cbn; auto 7]. split; cbn; [rewrite upd_length; auto|]. exists l; auto.
  - inversion Hc; subst. split; auto.
Qed.

(* push of a node that is not in the free list *)
Lemma slab_push_spec : forall N s i, slab_wf N s -> i < N -> ~ In i (free_nodes N s) ->
  slab_wf N (slab_push s i) /\ free_nodes N (slab_push s i) = i :: free_nodes N s /\ 0 < sl_inuse s.
Proof.
  intros N s i Hw Hi Hni. destruct (slab_wf_free Hw) as (Hc & Hnd & Hlen).
  destruct Hw as (Hl & _).
  assert (Hc2 : chain (upd (sl_next s) i (sl_first s)) (Some i) (i :: free_nodes N s)).
  { constructor; [rewrite upd_length; lia|]. rewrite nth_upd_same by lia. apply chain_upd_notin; auto. }
  assert (Hpos : 0 < sl_inuse s).
  { destruct (sl_inuse s) eqn:E; [|lia]. exfalso.
    (* N distinct free nodes below N, and i < N is not among them *)
    assert (Hincl : incl (i :: free_nodes N s) (seq 0 N)).
    { intros x [Hx|Hx]; apply in_seq; [subst; lia|]. pose proof (chain_bound _ _ _ Hc x Hx). lia. }
    assert (HN : NoDup (i :: free_nodes N s)) by (constructor; auto).
    pose proof (NoDup_incl_length HN Hincl) as Hle. cbn in Hle. rewrite seq_length in Hle. lia. }
  split; [|split; auto].
  - split; cbn; [rewrite upd_length; auto|]. exists (i :: free_nodes N s). split; auto. split; [constructor; auto|cbn; lia].
  - unfold free_nodes at 1; cbn [slab_push sl_next sl_first]. apply walk_chain; auto. cbn; lia.
Qed.

(* ---- pool invariant ---- *)

Definition full (s : slab) : Prop := has_avail s = false.

Fixpoint abf (l : list slab) : Prop :=   (* slabs with free nodes precede full slabs *)
  match l with
  | [] => True
  | s :: t => (full s -> Forall full t) /\ abf t
  end.

Fixpoint free_total (N : nat) (l : list slab) : nat :=
  match l with
  | [] => 0
  | s :: t => length (free_nodes N s) + free_total N t
  end.

Definition disjoint (N : nat) (l : list slab) : Prop :=
  forall s1 s2 o, In s1 l -> In s2 l -> owns N s1 o = true -> owns N s2 o = true -> sl_id s1 = sl_id s2.

Record pool_wf (N hlen : nat) (p : pool) : Prop := mkPoolWf {
  pw_slabs : Forall (slab_wf N) (p_slabs p);
  pw_ids : NoDup (map sl_id (p_slabs p));
  pw_idlt : Forall (fun s => sl_id s < p_nextid p) (p_slabs p);
  pw_bound : Forall (fun s => sl_base s + N <= hlen) (p_slabs p);
  pw_disj : disjoint N (p_slabs p);
  pw_cur : p_cur p = free_total N (p_slabs p);
  pw_abf : abf (p_slabs p)
}.

Definition pfree (N : nat) (l : list slab) (o : nat) : Prop :=
  exists s, In s l /\ owns N s o = true /\ In (o - sl_base s) (free_nodes N s).
Definition pused (N : nat) (l : list slab) (o : nat) : Prop :=
  exists s, In s l /\ owns N s o = true /\ ~ In (o - sl_base s) (free_nodes N s).

Lemma empty_pool_wf : forall N hlen max, pool_wf N hlen (empty_pool max).
Proof. intros; constructor; cbn; auto; try constructor. intros s1 s2 o []. Qed.

Lemma owns_spec : forall N s o, owns N s o = true <-> sl_base s <= o < sl_base s + N.
Proof. intros; unfold owns; rewrite andb_true_iff, Nat.leb_le, Nat.ltb_lt; tauto. Qed.

Lemma nodup_map_inj : forall A B (f : A -> B) l a b, NoDup (map f l) -> In a l -> In b l -> f a = f b -> a = b.
Proof.
  induction l as [|h t IH]; intros a b Hn Ha Hb E; cbn in *; [tauto|].
  inversion Hn as [|x l' Hni Hn']; subst.
  destruct Ha as [Ha|Ha], Hb as [Hb|Hb]; subst; auto.
  - exfalso; apply Hni; rewrite E; apply in_map; auto.
  - exfalso; apply Hni; rewrite <- E; apply in_map; auto.
Qed.

Lemma in_remove_slab : forall id l s, In s (remove_slab id l) <-> In s l /\ sl_id s <> id.
Proof.
  intros; unfold remove_slab; rewrite filter_In, negb_true_iff, Nat.eqb_neq; tauto.
Qed.

Lemma abf_filter : forall f l, abf l -> abf (filter f l).
Proof.
  induction l as [|h t IH]; cbn; intros H; auto. destruct H as (H1 & H2).
  destruct (f h); cbn; auto. split; auto.
  intros Hf. specialize (H1 Hf). rewrite Forall_forall in *. intros x Hx. apply filter_In in Hx. apply H1; tauto.
Qed.

Lemma abf_app_full : forall l s, abf l -> full s -> abf (l ++ [s]).
Proof.
  induction l as [|h t IH]; cbn; intros s H Hs; [split; auto|].
  destruct H as (H1 & H2). split; auto. intros Hf. apply Forall_app; split; auto.
Qed.

Lemma abf_all_full : forall l s, abf (s :: l) -> full s -> Forall full (s :: l).
Proof. intros l s (H1 & _) Hs. constructor; auto. Qed.

Lemma free_total_app : forall N a b, free_total N (a ++ b) = free_total N a + free_total N b.
Proof. induction a as [|h t IH]; intros; cbn [free_total app]; auto. rewrite IH; lia. Qed.

Lemma free_total_full : forall N l, Forall (slab_wf N) l -> Forall full l -> free_total N l = 0.
Proof.
  induction l as [|h t IH]; intros Hw Hf; cbn [free_total]; auto.
  inversion Hw; inversion Hf; subst. rewrite IH by auto.
  assert (free_nodes N h = []).
  { unfold free_nodes. unfold full, has_avail in *. destruct (sl_first h); [discriminate|]. destruct N; reflexivity. }
  rewrite H; auto.
Qed.

Lemma filter_all : forall A (f : A -> bool) l, (forall x, In x l -> f x = true) -> filter f l = l.
Proof.
  induction l as [|h t IH]; intros H; cbn; auto.
  rewrite (H h) by (left; auto). f_equal. apply IH. intros; apply H; right; auto.
Qed.

Lemma free_total_remove : forall N id l s, NoDup (map sl_id l) -> In s l -> sl_id s = id ->
  free_total N l = length (free_nodes N s) + free_total N (remove_slab id l).
Proof.
  induction l as [|h t IH]; intros s Hn Hin Hid; cbn [free_total remove_slab filter map In] in *; [tauto|].
  inversion Hn as [|x l' Hni Hn']; subst.
  destruct Hin as [Hin|Hin].
  - subst h. rewrite Nat.eqb_refl; cbn [negb].
    rewrite filter_all; auto.
    intros x Hx. apply negb_true_iff, Nat.eqb_neq. intros E. apply Hni. rewrite <- E. apply in_map; auto.
  - destruct (sl_id h =? sl_id s) eqn:E; cbn [negb free_total].
    + apply Nat.eqb_eq in E. exfalso. apply Hni. rewrite E. apply in_map; auto.
    + fold (remove_slab (sl_id s) t). rewrite (IH s) by auto. lia.
Qed.

(* ---- the order-independent part ---- *)

Definition cwf (N hlen nid : nat) (l : list slab) : Prop :=
  Forall (slab_wf N) l /\ NoDup (map sl_id l) /\ Forall (fun s => sl_id s < nid) l /\
  Forall (fun s => sl_base s + N <= hlen) l /\ disjoint N l.

Lemma pool_wf_cwf : forall {N hlen p}, pool_wf N hlen p -> cwf N hlen (p_nextid p) (p_slabs p).
Proof. intros N hlen p []; repeat split; auto. Qed.

Lemma cwf_perm : forall N hlen nid l l', Permutation l l' -> cwf N hlen nid l -> cwf N hlen nid l'.
Proof.
  intros N hlen nid l l' HP (H1 & H2 & H3 & H4 & H5). repeat split.
  - eapply Permutation_Forall; eauto.
  - eapply Permutation_NoDup; [apply Permutation_map; eauto|auto].
  - eapply Permutation_Forall; eauto.
  - eapply Permutation_Forall; eauto.
  - intros s1 s2 o I1 I2. apply H5; eapply Permutation_in; try eassumption; apply Permutation_sym; auto.
Qed.

Lemma free_total_perm : forall N l l', Permutation l l' -> free_total N l = free_total N l'.
Proof. induction 1; cbn [free_total]; lia. Qed.

Lemma mem_perm : forall N l l' o, Permutation l l' ->
  (pfree N l o <-> pfree N l' o) /\ (pused N l o <-> pused N l' o).
Proof.
  intros N l l' o HP. pose proof (Permutation_sym HP) as HP'.
  split; split; intros (s & Hi & H); exists s; (split; [eapply Permutation_in; eauto|auto]).
Qed.

Lemma cwf_unique : forall N hlen nid l s1 s2 o, cwf N hlen nid l -> In s1 l -> In s2 l ->
  owns N s1 o = true -> owns N s2 o = true -> s1 = s2.
Proof.
  intros N hlen nid l s1 s2 o (_ & Hn & _ & _ & Hd) I1 I2 O1 O2.
  eapply nodup_map_inj; eauto.
Qed.

Lemma pfree_pused_excl : forall N hlen nid l o, cwf N hlen nid l -> pfree N l o -> pused N l o -> False.
Proof.
  intros N hlen nid l o Hc (s1 & I1 & O1 & F1) (s2 & I2 & O2 & F2).
  assert (s1 = s2) by (eapply cwf_unique; eauto). subst. auto.
Qed.

Lemma remove_head : forall s rest, NoDup (map sl_id (s :: rest)) -> remove_slab (sl_id s) (s :: rest) = rest.
Proof.
  intros s rest Hn. cbn. rewrite Nat.eqb_refl; cbn. inversion Hn as [|x l' Hni Hn']; subst.
  apply filter_all. intros x Hx. apply negb_true_iff, Nat.eqb_neq. intros E. apply Hni. rewrite <- E. apply in_map; auto.
Qed.

Lemma cwf_filter : forall N hlen nid l f, cwf N hlen nid l -> cwf N hlen nid (filter f l).
Proof.
  intros N hlen nid l f (H1 & H2 & H3 & H4 & H5). repeat split.
  - rewrite Forall_forall in *. intros x Hx. apply filter_In in Hx. apply H1; tauto.
  - clear - H2. induction l as [|h t IH]; cbn; auto. inversion H2; subst.
    destruct (f h); cbn; auto. constructor; auto.
    intros Hin. apply H1. apply in_map_iff in Hin. destruct Hin as (x & E & Hx). apply filter_In in Hx.
    rewrite <- E. apply in_map; tauto.
  - rewrite Forall_forall in *. intros x Hx. apply filter_In in Hx. apply H3; tauto.
  - rewrite Forall_forall in *. intros x Hx. apply filter_In in Hx. apply H4; tauto.
  - intros s1 s2 o I1 I2. apply filter_In in I1, I2. apply H5; tauto.
Qed.

Lemma cwf_remove : forall N hlen nid l id, cwf N hlen nid l -> cwf N hlen nid (remove_slab id l).
Proof. intros. apply cwf_filter; auto. Qed.

(* replacing slab s by an updated copy s' (same id, same base) *)
Lemma cwf_replace : forall N hlen nid l s s', cwf N hlen nid l -> In s l ->
  sl_id s' = sl_id s -> sl_base s' = sl_base s -> slab_wf N s' ->
  cwf N hlen nid (s' :: remove_slab (sl_id s) l).
Proof.
  intros N hlen nid l s s' Hc Hin Eid Ebase Hw'.
  pose proof (cwf_remove _ _ _ _ (sl_id s) Hc) as (R1 & R2 & R3 & R4 & R5).
  destruct Hc as (H1 & H2 & H3 & H4 & H5).
  repeat split.
  - constructor; auto.
  - cbn. constructor; auto. rewrite Eid. intros Hx. apply in_map_iff in Hx. destruct Hx as (x & E & Hx).
    apply in_remove_slab in Hx. tauto.
  - constructor; auto. rewrite Eid. rewrite Forall_forall in H3. apply H3; auto.
  - constructor; auto. rewrite Ebase. rewrite Forall_forall in H4. apply (H4 s); auto.
  - intros s1 s2 o I1 I2 O1 O2.
    assert (Hown : forall x, owns N s' x = owns N s x) by (intros; unfold owns; rewrite Ebase; auto).
    destruct I1 as [I1|I1], I2 as [I2|I2]; subst; auto.
    + rewrite Eid. apply in_remove_slab in I2. apply (H5 s s2 o); try tauto. rewrite <- Hown; auto.
    + rewrite Eid. apply in_remove_slab in I1. apply (H5 s1 s o); try tauto. rewrite <- Hown; auto.
    + apply R5 with o; auto.
Qed.

Lemma free_total_replace : forall N l s s', NoDup (map sl_id l) -> In s l ->
  free_total N (s' :: remove_slab (sl_id s) l) + length (free_nodes N s) = free_total N l + length (free_nodes N s').
Proof.
  intros N l s s' Hn Hin. cbn [free_total]. rewrite (free_total_remove N (sl_id s) l s) by auto. lia.
Qed.

(* membership after a replacement, for objects of the replaced slab and for all others *)
Lemma mem_replace : forall N hlen nid l s s' x, cwf N hlen nid l -> In s l ->
  sl_id s' = sl_id s -> sl_base s' = sl_base s ->
  (pfree N (s' :: remove_slab (sl_id s) l) x <->
   (owns N s x = true /\ In (x - sl_base s) (free_nodes N s')) \/ (owns N s x = false /\ pfree N l x)) /\
  (pused N (s' :: remove_slab (sl_id s) l) x <->
   (owns N s x = true /\ ~ In (x - sl_base s) (free_nodes N s')) \/ (owns N s x = false /\ pused N l x)).
Proof.
  intros N hlen nid l s s' x Hc Hin Eid Ebase.
  assert (Hown : forall y, owns N s' y = owns N s y) by (intros; unfold owns; rewrite Ebase; auto).
  split; split.
  1,3: (* left to right, for free and for used *)
    intros (s1 & I1 & O1 & F1); destruct I1 as [I1|I1];
    [subst s1; left; rewrite <- Hown, <- Ebase; auto|];
    apply in_remove_slab in I1; destruct I1 as (I1 & Hne); right; split; [|exists s1; auto];
    destruct (owns N s x) eqn:E; auto; exfalso; apply Hne; f_equal; eapply cwf_unique; eauto.
  all: (* right to left *)
    intros [(O & F)|(O & (s1 & I1 & O1 & F1))];
    [exists s'; split; [left; auto|]; rewrite Hown, Ebase; auto|];
    exists s1; split; auto; right; apply in_remove_slab; split; auto; intros E;
    assert (s1 = s) by (destruct Hc as (_ & Hn & _); eapply nodup_map_inj; eauto); subst; congruence.
Qed.

Lemma mem_remove : forall N hlen nid l s x, cwf N hlen nid l -> In s l ->
  (pfree N (remove_slab (sl_id s) l) x <-> owns N s x = false /\ pfree N l x) /\
  (pused N (remove_slab (sl_id s) l) x <-> owns N s x = false /\ pused N l x).
Proof.
  intros N hlen nid l s x Hc Hin. split; split.
  1,3: (* left to right, for free and for used *)
    intros (s1 & I1 & O1 & F1); apply in_remove_slab in I1; destruct I1 as (I1 & Hne); split; [|exists s1; auto];
    destruct (owns N s x) eqn:E; auto; exfalso; apply Hne; f_equal; eapply cwf_unique; eauto.
  all: (* right to left *)
    intros (O & (s1 & I1 & O1 & F1)); exists s1; split; auto; apply in_remove_slab; split; auto; intros E;
    assert (s1 = s) by (destruct Hc as (_ & Hn & _); eapply nodup_map_inj; eauto); subst; congruence.
Qed.

Lemma mem_in_slab : forall N hlen nid l s x, cwf N hlen nid l -> In s l -> owns N s x = true ->
  (pfree N l x <-> In (x - sl_base s) (free_nodes N s)) /\ (pused N l x <-> ~ In (x - sl_base s) (free_nodes N s)).
Proof.
  intros N hlen nid l s x Hc Hin Ho. split; split; try (intros F; exists s; auto).
  all: intros (s1 & I1 & O1 & F1); assert (s1 = s) by (eapply cwf_unique; eauto); subst; auto.
Qed.

(* a replacement that keeps the free list at x's node keeps the status of x *)
Lemma mem_replace_same : forall N hlen nid l s s' x, cwf N hlen nid l -> In s l ->
  sl_id s' = sl_id s -> sl_base s' = sl_base s ->
  (owns N s x = true -> (In (x - sl_base s) (free_nodes N s') <-> In (x - sl_base s) (free_nodes N s))) ->
  (pfree N (s' :: remove_slab (sl_id s) l) x <-> pfree N l x) /\ (pused N (s' :: remove_slab (sl_id s) l) x <-> pused N l x).
Proof.
  intros N hlen nid l s s' x Hc Hin Eid Ebase Hsame.
  destruct (mem_replace N hlen nid l s s' x Hc Hin Eid Ebase) as (R1 & R2). rewrite R1, R2.
  destruct (owns N s x) eqn:Ho.
  - destruct (mem_in_slab N hlen nid l s x Hc Hin Ho) as (-> & ->). specialize (Hsame eq_refl).
    split; split; try tauto; intros [(_ & H)|(H & _)]; try discriminate; tauto.
  - split; split; try tauto; intros [(H & _)|(_ & H)]; try discriminate; tauto.
Qed.

Lemma owned_lt_hlen : forall N hlen nid l s x, cwf N hlen nid l -> In s l -> owns N s x = true -> x < hlen.
Proof.
  intros N hlen nid l s x (_ & _ & _ & Hb & _) Hin Ho. rewrite Forall_forall in Hb. specialize (Hb s Hin).
  apply owns_spec in Ho. lia.
Qed.

(* ---- ObtainObjectAux ---- *)

Definition obtain_spec (N hlen : nat) (p p' : pool) (o : nat) (cr : option slab) : Prop :=
  match cr with
  | None =>
      pool_wf N hlen p' /\ pfree N (p_slabs p) o /\ pused N (p_slabs p') o /\ p_max p' = p_max p /\
      (forall x, x <> o -> (pfree N (p_slabs p') x <-> pfree N (p_slabs p) x) /\
                           (pused N (p_slabs p') x <-> pused N (p_slabs p) x))
  | Some sn =>
      pool_wf N (hlen + N) p' /\ p_cur p = 0 /\ hlen <= o < hlen + N /\ sl_base sn = hlen /\
      pused N (p_slabs p') o /\ p_max p' = p_max p /\
      (forall x, x <> o -> (pfree N (p_slabs p') x <-> pfree N (p_slabs p) x \/ hlen <= x < hlen + N) /\
                           (pused N (p_slabs p') x <-> pused N (p_slabs p) x))
  end.

Lemma pool_wf_weaken : forall N hlen hlen' p, hlen <= hlen' -> pool_wf N hlen p -> pool_wf N hlen' p.
Proof.
  intros N hlen hlen' p Hle []. constructor; auto.
  rewrite Forall_forall in *. intros s Hs. specialize (pw_bound0 s Hs). lia.
Qed.

Lemma obtain_existing : forall N hlen p s rest s' i,
  pool_wf N hlen p -> p_slabs p = s :: rest -> slab_pop s = Some (s', i) ->
  obtain_spec N hlen p
    (mkPool (if negb (has_avail s') && negb (is_nil rest) then rest ++ [s'] else s' :: rest) (p_cur p - 1) (p_max p) (p_nextid p))
    (sl_base s + i) None.
Proof.
  intros N hlen p s rest s' i Hw Hs Hpop.
  pose proof (pool_wf_cwf Hw) as Hc. rewrite Hs in Hc.
  destruct Hw as [W1 W2 W3 W4 W5 W6 W7]. rewrite Hs in *.
  assert (Hsw : slab_wf N s) by (inversion W1; auto).
  pose proof (slab_pop_spec N s Hsw) as Hp. rewrite Hpop in Hp.
  destruct Hp as (l & Hf & Hf' & Hw' & Eid & Ebase & Einuse & Hi & Hni).
  assert (Hin : In s (s :: rest)) by (left; auto).
  assert (Hrem : remove_slab (sl_id s) (s :: rest) = rest) by (apply remove_head; auto).
  assert (Hc' : cwf N hlen (p_nextid p) (s' :: rest)).
  { rewrite <- Hrem. eapply cwf_replace; eauto. }
  set (slabs' := if negb (has_avail s') && negb (is_nil rest) then rest ++ [s'] else s' :: rest).
  assert (HP : Permutation (s' :: rest) slabs').
  { unfold slabs'. destruct (negb (has_avail s') && negb (is_nil rest)); auto.
    change (s' :: rest) with ([s'] ++ rest). apply Permutation_app_comm. }
  assert (Hc2 : cwf N hlen (p_nextid p) slabs') by (eapply cwf_perm; eauto).
  assert (Hown : owns N s (sl_base s + i) = true) by (apply owns_spec; lia).
  unfold obtain_spec. cbn [p_slabs p_cur p_max p_nextid]. rewrite Hs. fold slabs'. split; [|split; [|split; [|split]]].
  - destruct Hc2 as (C1 & C2 & C3 & C4 & C5). constructor; cbn [p_slabs p_cur p_max p_nextid]; auto.
    + rewrite <- (free_total_perm N _ _ HP). cbn [free_total]. rewrite Hf'.
      rewrite W6. cbn [free_total]. rewrite Hf. cbn [length]. lia.
    + unfold slabs'. cbn in W7. destruct W7 as (A1 & A2).
      destruct (has_avail s') eqn:Ha; cbn [negb andb].
      * cbn. split; auto. unfold full. congruence.
      * destruct rest as [|r rest']; cbn [is_nil negb].
        -- cbn. split; auto.
        -- apply abf_app_full; auto.
  - exists s. split; auto. split; auto. replace (sl_base s + i - sl_base s) with i by lia. rewrite Hf. left; auto.
  - apply (mem_perm N _ _ _ HP). exists s'. split; [left; auto|]. split.
    + unfold owns. rewrite Ebase. exact Hown.
    + rewrite Ebase. replace (sl_base s + i - sl_base s) with i by lia. rewrite Hf'. auto.
  - reflexivity.
  - intros x Hx. cbn [p_slabs]. destruct (mem_perm N _ _ x HP) as (<- & <-).
    pose proof (mem_replace_same N hlen (p_nextid p) (s :: rest) s s' x Hc Hin Eid Ebase) as R. rewrite Hrem in R.
    apply R. intros Ho. rewrite Hf, Hf'. apply owns_spec in Ho.
    cbn [In]. split; auto. intros [E|E]; auto. lia.
Qed.

Lemma obtain_create : forall N hlen p, 1 <= N -> pool_wf N hlen p ->
  Forall full (p_slabs p) ->
  let '(p', o, cr) := pool_create N hlen p in obtain_spec N hlen p p' o cr.
Proof.
  intros N hlen p HN Hw Hfull.
  pose proof (pool_wf_cwf Hw) as Hc.
  destruct Hw as [W1 W2 W3 W4 W5 W6 W7].
  unfold pool_create.
  set (s := new_slab N (p_nextid p) hlen).
  pose proof (new_slab_wf N (p_nextid p) hlen) as Hsw. fold s in Hsw.
  pose proof (slab_pop_spec N s Hsw) as Hp.
  destruct (slab_pop s) as [[s' i]|] eqn:Hpop.
  2:{ exfalso. destruct Hp as (Hp & _). unfold s in Hp. rewrite new_slab_free in Hp.
      destruct N; [lia|]. rewrite seq_S, rev_app_distr in Hp. discriminate. }
  destruct Hp as (l & Hf & Hf' & Hw' & Eid & Ebase & Einuse & Hi & Hni).
  assert (Eid' : sl_id s' = p_nextid p) by (rewrite Eid; reflexivity).
  assert (Ebase' : sl_base s' = hlen) by (rewrite Ebase; reflexivity).
  assert (Hlen : length l = N - 1).
  { destruct (slab_wf_free Hsw) as (_ & _ & Hl). rewrite Hf in Hl. cbn in Hl. lia. }
  assert (Hcur : p_cur p = 0) by (rewrite W6; apply free_total_full; auto).
  set (slabs' := if has_avail s' then s' :: p_slabs p else p_slabs p ++ [s']).
  assert (HP : Permutation (s' :: p_slabs p) slabs').
  { unfold slabs'. destruct (has_avail s'); auto.
    change (s' :: p_slabs p) with ([s'] ++ p_slabs p). apply Permutation_app_comm. }
  assert (Hown' : forall x, owns N s' x = true <-> hlen <= x < hlen + N).
  { intros x. rewrite owns_spec. rewrite Ebase'. tauto. }
  assert (Hold : forall s0 x, In s0 (p_slabs p) -> owns N s0 x = true -> x < hlen).
  { intros s0 x I0 O0. eapply owned_lt_hlen; eauto. }
  assert (Hc1 : cwf N (hlen + N) (S (p_nextid p)) (s' :: p_slabs p)).
  { destruct Hc as (C1 & C2 & C3 & C4 & C5). repeat split.
    - constructor; auto.
    - cbn. constructor; auto. rewrite Eid'. intros Hx. apply in_map_iff in Hx. destruct Hx as (y & E & Hy).
      rewrite Forall_forall in C3. specialize (C3 y Hy). lia.
    - constructor; [lia|]. rewrite Forall_forall in *. intros y Hy. specialize (C3 y Hy). lia.
    - constructor; [lia|]. rewrite Forall_forall in *. intros y Hy. specialize (C4 y Hy). lia.
    - intros s1 s2 x I1 I2 O1 O2. destruct I1 as [I1|I1], I2 as [I2|I2]; subst; auto.
      + apply Hown' in O1. pose proof (Hold _ _ I2 O2). lia.
      + apply Hown' in O2. pose proof (Hold _ _ I1 O1). lia.
      + eapply C5; eauto. }
  assert (Hc2 : cwf N (hlen + N) (S (p_nextid p)) slabs') by (eapply cwf_perm; eauto).
  unfold obtain_spec. cbn [p_slabs p_cur p_max p_nextid]. fold slabs'.
  split; [|split; [|split; [|split; [|split; [|split]]]]]; auto.
  - destruct Hc2 as (C1 & C2 & C3 & C4 & C5). constructor; cbn [p_slabs p_cur p_max p_nextid]; auto.
    + rewrite <- (free_total_perm N _ _ HP). cbn [free_total]. rewrite Hf'. rewrite <- W6. lia.
    + unfold slabs'. destruct (has_avail s') eqn:Ha.
      * cbn. split; auto.
      * apply abf_app_full; auto.
  - lia.
  - apply (mem_perm N _ _ _ HP). exists s'. split; [left; auto|]. split.
    + apply Hown'. lia.
    + rewrite Ebase'. replace (hlen + i - hlen) with i by lia. rewrite Hf'. auto.
  - intros x Hx. destruct (mem_perm N _ _ x HP) as (<- & <-).
    (* every index below N other than i is in l *)
    assert (Hall : hlen <= x < hlen + N -> In (x - hlen) l).
    { intros Hr. assert (Hin : In (x - hlen) (i :: l)) by (rewrite <- Hf; unfold s; rewrite new_slab_free; apply -> in_rev; apply in_seq; lia).
      destruct Hin as [E|E]; auto. lia. }
    split; split.
    + intros (s1 & I1 & O1 & F1). destruct I1 as [I1|I1].
      * subst s1. right. apply Hown'; auto.
      * left. exists s1; auto.
    + intros [(s1 & I1 & O1 & F1)|Hr].
      * exists s1. split; [right; auto|auto].
      * exists s'. split; [left; auto|]. split; [apply Hown'; auto|]. rewrite Ebase', Hf'. auto.
    + intros (s1 & I1 & O1 & F1). destruct I1 as [I1|I1]; [|exists s1; auto].
      subst s1. exfalso. apply F1. rewrite Ebase', Hf'. apply Hown' in O1. auto.
    + intros (s1 & I1 & O1 & F1). exists s1. split; [right; auto|auto].
Qed.

Theorem pool_obtain_spec : forall N hlen p, 1 <= N -> pool_wf N hlen p ->
  let '(p', o, cr) := pool_obtain N hlen p in obtain_spec N hlen p p' o cr.
Proof.
  intros N hlen p HN Hw. unfold pool_obtain.
  destruct (p_slabs p) as [|s rest] eqn:Hs.
  - apply obtain_create; auto. rewrite Hs; constructor.
  - destruct (slab_pop s) as [[s' i]|] eqn:Hpop.
    + apply obtain_existing; auto.
    + apply obtain_create; auto.
      (* the first slab is full, hence every slab is *)
      destruct Hw as [W1 W2 W3 W4 W5 W6 W7]. rewrite Hs in *.
      apply abf_all_full; auto. unfold full, has_avail. unfold slab_pop in Hpop. destruct (sl_first s); [discriminate|auto].
Qed.

(* ---- ReleaseObjectAux ---- *)

Lemma find_slab_some : forall N l o s, find_slab N l o = Some s -> In s l /\ owns N s o = true.
Proof.
  induction l as [|h t IH]; cbn; intros o s H; [discriminate|].
  destruct (owns N h o) eqn:E.
  - inversion H; subst; auto.
  - destruct (IH _ _ H); auto.
Qed.

Lemma find_slab_none : forall N l o, find_slab N l o = None -> forall s, In s l -> owns N s o = false.
Proof.
  induction l as [|h t IH]; cbn; intros o H s Hin; [tauto|].
  destruct (owns N h o) eqn:E; [discriminate|]. destruct Hin; subst; auto.
Qed.

Lemma full_cover : forall N l, NoDup l -> (forall x, In x l -> x < N) -> length l = N -> forall k, k < N -> In k l.
Proof.
  intros N l Hnd Hb Hlen k Hk.
  assert (Hincl : incl l (seq 0 N)) by (intros x Hx; apply in_seq; specialize (Hb x Hx); lia).
  assert (Hle : length (seq 0 N) <= length l) by (rewrite seq_length; lia).
  pose proof (NoDup_length_incl Hnd Hle Hincl) as H. apply H. apply in_seq. lia.
Qed.

Lemma unused_all_free : forall N s, slab_wf N s -> sl_inuse s = 0 -> forall k, k < N -> In k (free_nodes N s).
Proof.
  intros N s Hw H0 k Hk. destruct (slab_wf_free Hw) as (Hc & Hnd & Hlen).
  apply (full_cover N); auto; [|lia]. intros x Hx. eapply free_nodes_bound; eauto.
Qed.

Definition release_spec (N hlen : nat) (p p' : pool) (o : nat) (del : option slab) : Prop :=
  pool_wf N hlen p' /\ p_max p' = p_max p /\
  match del with
  | None =>
      pfree N (p_slabs p') o /\
      (forall x, x <> o -> (pfree N (p_slabs p') x <-> pfree N (p_slabs p) x) /\
                           (pused N (p_slabs p') x <-> pused N (p_slabs p) x))
  | Some sd =>
      owns N sd o = true /\ sl_base sd + N <= hlen /\
      (forall x, owns N sd x = true -> x = o \/ pfree N (p_slabs p) x) /\
      (forall x, owns N sd x = true -> ~ pfree N (p_slabs p') x /\ ~ pused N (p_slabs p') x) /\
      (forall x, owns N sd x = false -> (pfree N (p_slabs p') x <-> pfree N (p_slabs p) x) /\
                                        (pused N (p_slabs p') x <-> pused N (p_slabs p) x))
  end.

Theorem pool_release_spec : forall N hlen p o, 1 <= N -> pool_wf N hlen p -> pused N (p_slabs p) o ->
  let '(p', del) := pool_release N p o in release_spec N hlen p p' o del.
Proof.
  intros N hlen p o HN Hw Hu.
  pose proof (pool_wf_cwf Hw) as Hc.
  destruct Hw as [W1 W2 W3 W4 W5 W6 W7].
  destruct Hu as (s & Hin & Ho & Hnf).
  unfold pool_release.
  destruct (find_slab N (p_slabs p) o) as [s0|] eqn:Hfs.
  2:{ pose proof (find_slab_none _ _ _ Hfs s Hin). congruence. }
  destruct (find_slab_some _ _ _ _ Hfs) as (Hin0 & Ho0).
  assert (s0 = s) by (eapply cwf_unique; eauto). subst s0.
  assert (Hsw : slab_wf N s) by (rewrite Forall_forall in W1; auto).
  pose proof Ho as Ho'. apply owns_spec in Ho'.
  set (i := o - sl_base s) in *.
  assert (Hi : i < N) by (unfold i; lia).
  destruct (slab_push_spec N s i Hsw Hi Hnf) as (Hw' & Hf' & Hpos).
  set (s' := slab_push s i) in *.
  assert (Eid : sl_id s' = sl_id s) by reflexivity.
  assert (Ebase : sl_base s' = sl_base s) by reflexivity.
  assert (Hown : forall x, owns N s' x = owns N s x) by reflexivity.
  destruct (slab_wf_free Hsw) as (_ & Hnd & Hlen).
  assert (Hft : free_total N (p_slabs p) = length (free_nodes N s) + free_total N (remove_slab (sl_id s) (p_slabs p))).
  { apply free_total_remove; auto. }
  destruct ((p_max p + N <? S (p_cur p)) && negb (slab_in_use s')) eqn:Hcond.
  - (* the slab leaves the list and is handed out for deletion *)
    apply andb_true_iff in Hcond. destruct Hcond as (_ & Hnu).
    apply negb_true_iff in Hnu. unfold slab_in_use in Hnu. apply Nat.ltb_ge in Hnu.
    assert (Hinuse1 : sl_inuse s = 1) by (cbn in Hnu; lia).
    assert (Hall : forall k, k < N -> In k (free_nodes N s')).
    { apply unused_all_free; auto. cbn. lia. }
    unfold release_spec. cbn [p_slabs p_cur p_max p_nextid].
    split; [|split; [reflexivity|]].
    + pose proof (cwf_remove _ _ _ _ (sl_id s) Hc) as (R1 & R2 & R3 & R4 & R5).
      constructor; cbn [p_slabs p_cur p_max p_nextid]; auto.
      * rewrite W6, Hft. lia.
      * apply abf_filter; auto.
    + split; [rewrite Hown; auto|]. split; [rewrite Ebase; rewrite Forall_forall in W4; apply (W4 s); auto|].
      split; [|split].
      * intros x Hx. rewrite Hown in Hx. pose proof Hx as Hx'. apply owns_spec in Hx'.
        destruct (Nat.eq_dec x o) as [|Hne]; auto. right.
        apply (mem_in_slab N hlen _ _ s x Hc Hin Hx).
        assert (Hk : x - sl_base s < N) by lia.
        specialize (Hall _ Hk). rewrite Hf' in Hall. destruct Hall as [E|E]; auto. unfold i in E. lia.
      * intros x Hx. rewrite Hown in Hx.
        destruct (mem_remove N hlen _ _ s x Hc Hin) as (-> & ->). split; intros (E & _); congruence.
      * intros x Hx. rewrite Hown in Hx.
        destruct (mem_remove N hlen _ _ s x Hc Hin) as (-> & ->). tauto.
  - (* the slab stays, moved to the front *)
    unfold release_spec. cbn [p_slabs p_cur p_max p_nextid].
    pose proof (cwf_replace N hlen (p_nextid p) (p_slabs p) s s' Hc Hin Eid Ebase Hw') as Hc'.
    split; [|split; [reflexivity|split]].
    + destruct Hc' as (C1 & C2 & C3 & C4 & C5). constructor; cbn [p_slabs p_cur p_max p_nextid]; auto.
      * cbn [free_total]. rewrite Hf'. cbn [length]. rewrite W6, Hft. lia.
      * cbn. split; [|apply abf_filter; auto]. unfold full, has_avail. cbn. discriminate.
    + apply (mem_replace N hlen _ _ s s' o Hc Hin Eid Ebase). left. split; auto. fold i. rewrite Hf'. left; auto.
    + intros x Hx. apply (mem_replace_same N hlen (p_nextid p)); auto. intros Hox. rewrite Hf'. apply owns_spec in Hox.
      cbn [In]. split; auto. intros [E|E]; auto. unfold i in E. lia.
Qed.

(* ---- Drain ---- *)

Lemma free_total_filter : forall N l, Forall (slab_wf N) l ->
  free_total N l = free_total N (filter slab_in_use l) + N * length (filter (fun s => negb (slab_in_use s)) l).
Proof.
  induction l as [|h t IH]; intros Hw; cbn [free_total filter length]; [lia|].
  inversion Hw as [|x l' Hh Ht]; subst. specialize (IH Ht).
  destruct (slab_in_use h) eqn:E; cbn [negb free_total length].
  - lia.
  - unfold slab_in_use in E. apply Nat.ltb_ge in E.
    destruct (slab_wf_free Hh) as (_ & _ & Hlen). lia.
Qed.

Definition drain_spec (N hlen : nat) (p p' : pool) (dels : list slab) : Prop :=
  pool_wf N hlen p' /\ p_max p' = p_max p /\
  (forall sd, In sd dels -> sl_base sd + N <= hlen /\ forall x, owns N sd x = true -> pfree N (p_slabs p) x) /\
  (forall x, pused N (p_slabs p') x <-> pused N (p_slabs p) x) /\
  (forall x, pfree N (p_slabs p') x <-> pfree N (p_slabs p) x /\ forall sd, In sd dels -> owns N sd x = false) /\
  (forall x, pfree N (p_slabs p) x -> pfree N (p_slabs p') x \/ exists sd, In sd dels /\ owns N sd x = true) /\
  NoDup (map sl_id dels) /\
  (forall s1 s2 x, In s1 dels -> In s2 dels -> owns N s1 x = true -> owns N s2 x = true -> s1 = s2).

Theorem pool_drain_spec : forall N hlen p, 1 <= N -> pool_wf N hlen p ->
  let '(p', dels) := pool_drain N p in drain_spec N hlen p p' dels.
Proof.
  intros N hlen p HN Hw.
  pose proof (pool_wf_cwf Hw) as Hc.
  destruct Hw as [W1 W2 W3 W4 W5 W6 W7].
  unfold pool_drain, drain_spec. cbn [p_slabs p_cur p_max p_nextid].
  set (unused := filter (fun s => negb (slab_in_use s)) (p_slabs p)).
  assert (Hun : forall sd, In sd (rev unused) <-> In sd (p_slabs p) /\ slab_in_use sd = false).
  { intros sd. rewrite <- in_rev. unfold unused. rewrite filter_In, negb_true_iff. tauto. }
  assert (Hfree : forall sd x, In sd (p_slabs p) -> slab_in_use sd = false -> owns N sd x = true -> pfree N (p_slabs p) x).
  { intros sd x I U O. exists sd. split; auto. split; auto.
    apply unused_all_free; [rewrite Forall_forall in W1; auto| |apply owns_spec in O; lia].
    unfold slab_in_use in U. apply Nat.ltb_ge in U. lia. }
  assert (Hused : forall s x, In s (p_slabs p) -> owns N s x = true -> ~ In (x - sl_base s) (free_nodes N s) -> slab_in_use s = true).
  { intros s x I O F. destruct (slab_in_use s) eqn:E; auto. exfalso. apply F.
    apply unused_all_free; [rewrite Forall_forall in W1; auto| |apply owns_spec in O; lia].
    unfold slab_in_use in E. apply Nat.ltb_ge in E. lia. }
  pose proof (cwf_filter N hlen (p_nextid p) (p_slabs p) slab_in_use Hc) as Hc'.
  split; [|split; [reflexivity|split; [|split; [|split; [|split; [|split]]]]]].
  - destruct Hc' as (C1 & C2 & C3 & C4 & C5). constructor; cbn [p_slabs p_cur p_max p_nextid]; auto.
    + rewrite W6. rewrite (free_total_filter N (p_slabs p) W1). fold unused. lia.
    + apply abf_filter; auto.
  - intros sd Hsd. apply Hun in Hsd. destruct Hsd as (I & U). split.
    + rewrite Forall_forall in W4. apply W4; auto.
    + intros x O. eapply Hfree; eauto.
  - intros x. split.
    + intros (s & I & O & F). apply filter_In in I. exists s; tauto.
    + intros (s & I & O & F). exists s. split; auto. apply filter_In. split; auto. eapply Hused; eauto.
  - intros x. split.
    + intros (s & I & O & F). apply filter_In in I. destruct I as (I & U). split; [exists s; auto|].
      intros sd Hsd. apply Hun in Hsd. destruct Hsd as (I2 & U2).
      destruct (owns N sd x) eqn:E; auto. assert (sd = s) by (apply (cwf_unique N hlen (p_nextid p) (p_slabs p) sd s x); auto). subst. congruence.
    + intros ((s & I & O & F) & Hno). exists s. split; auto. apply filter_In. split; auto.
      destruct (slab_in_use s) eqn:E; auto. assert (Hs : In s (rev unused)) by (apply Hun; auto).
      specialize (Hno s Hs). congruence.
  - intros x (s & I & O & F). destruct (slab_in_use s) eqn:E.
    + left. exists s. split; auto. apply filter_In; auto.
    + right. exists s. split; auto. apply Hun; auto.
  - pose proof (cwf_filter N hlen (p_nextid p) (p_slabs p) (fun s => negb (slab_in_use s)) Hc) as (_ & C2 & _).
    fold unused in C2. rewrite map_rev. apply NoDup_rev; auto.
  - intros s1 s2 x I1 I2 O1 O2. apply Hun in I1, I2. apply (cwf_unique N hlen (p_nextid p) (p_slabs p) s1 s2 x); tauto.
Qed.

(* ---- consequences ---- *)

(* bookkeeping consistency as the sanity check sees it, spelled out *)
Theorem pool_wf_sanity : forall N hlen p, pool_wf N hlen p ->
  p_cur p = free_total N (p_slabs p) /\
  Forall (fun s => length (sl_next s) = N /\ sl_inuse s <= N /\
                   length (free_nodes N s) = N - sl_inuse s /\ NoDup (free_nodes N s) /\
                   (forall i, In i (free_nodes N s) -> i < N)) (p_slabs p).
Proof.
  intros N hlen p [W1 W2 W3 W4 W5 W6 W7]. split; auto.
  rewrite Forall_forall in *. intros s Hs. specialize (W1 s Hs).
  destruct (slab_wf_free W1) as (Hc & Hnd & Hlen). pose proof W1 as (Hl & _).
  split; [auto|]. split; [lia|]. split; [lia|]. split; [auto|].
  intros i Hi. eapply free_nodes_bound; eauto.
Qed.

(* a slab is created only when no listed slab has a free node *)
Theorem obtain_creates_only_when_exhausted : forall N hlen p p' o sn, 1 <= N -> pool_wf N hlen p ->
  pool_obtain N hlen p = (p', o, Some sn) -> p_cur p = 0.
Proof.
  intros N hlen p p' o sn HN Hw E. pose proof (pool_obtain_spec N hlen p HN Hw) as H. rewrite E in H.
  destruct H as (_ & H & _); auto.
Qed.

(* ---- INVALID_NODE_INDEX (translated constants) ---- *)

(* the model writes INVALID_NODE_INDEX as [None]; that is sound as long as no valid node index can
   equal ((uintNN)-1): slabs never hold more than c_pool_max_objects_per_slab objects (the
   static_assert in ObjectPool's constructor) and that bound does not exceed the invalid index *)
Lemma invalid_index_bound : (c_pool_max_objects_per_slab <= 2 ^ c_pool_node_index_bits - 1)%N.
Proof. vm_compute. discriminate. Qed.

Theorem valid_index_not_invalid : forall N i, (N.of_nat N <= c_pool_max_objects_per_slab)%N -> i < N ->
  N.of_nat i <> (2 ^ c_pool_node_index_bits - 1)%N.
Proof. intros N i HN Hi. pose proof invalid_index_bound. lia. Qed.
