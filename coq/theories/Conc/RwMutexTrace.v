(* C18 -- "each release undoes exactly one acquire", stated on the observable trace only.  The tally of a thread is computed
   from the sequence of (label, output) pairs of an execution -- which call it began, which status each call returned -- with
   no reference to the model's state; the theorem says the lock's table agrees with that tally whenever the thread is outside
   a call.  (The ghost counters l_hro/l_hrw of the model are thereby shown to be this tally.) *)
From Coq Require Import List Arith Bool Lia.
Import ListNotations.
From Muscle Require Import Conc.RwMutexModel Conc.RwMutexProofs Conc.RwMutexInv Conc.RwMutexThms.

Record tally := mkT { t_cur : option op; t_ro : nat; t_rw : nat }.
Definition tally0 : tally := mkT None 0 0.

(* one observed event, seen from thread t *)
Definition tally_step (t : tid) (x : tally) (ev : label * sout) : tally :=
  match fst ev with
  | LBegin k o => if Nat.eqb k t then mkT (Some o) (t_ro x) (t_rw x) else x
  | LStep k _ =>
      if Nat.eqb k t then
        match o_ret (snd ev) with
        | Some SOk =>
            match t_cur x with
            | Some (OLockRO _) => mkT None (S (t_ro x)) (t_rw x)
            | Some (OLockRW _) => mkT None (t_ro x) (S (t_rw x))
            | Some OUnlockRO => mkT None (pred (t_ro x)) (t_rw x)
            | Some OUnlockRW => mkT None (t_ro x) (pred (t_rw x))
            | None => x
            end
        | Some _ => mkT None (t_ro x) (t_rw x)        (* a failed call (timed out / B_LOCK_FAILED) counts for nothing *)
        | None => x
        end
      else x
  | _ => x
  end.

Definition tally_of (t : tid) (tr : list (label * sout)) : tally := fold_left (tally_step t) tr tally0.

(* executions with their outputs *)
Inductive exec_from (pref : bool) : sys -> list (label * sout) -> sys -> Prop :=
| exec_nil : forall s, exec_from pref s [] s
| exec_snoc : forall s tr s1 lab o s2, exec_from pref s tr s1 -> sys_step pref s1 lab = Some (s2, o) ->
                exec_from pref s (tr ++ [(lab, o)]) s2.

Lemma exec_reachable : forall pref tr s, exec_from pref sys0 tr s -> reachable pref s.
Proof.
  intros pref tr s H. remember sys0 as s0. induction H; subst; [apply reach_init|]. eapply reach_step; eauto.
Qed.

Section P.
Variable pref : bool.

(* how the ghost part of a thread's state moves in one transition that returns [r] to the user (or does not return) *)
Definition ghost_moves (l l' : loc) (r : option status) : Prop :=
  match r with
  | Some st => l_op l' = None /\ l_hro l' = ghost_ro (l_op l) st (l_hro l) /\ l_hrw l' = ghost_rw (l_op l) st (l_hrw l)
  | None => l_op l' = l_op l /\ l_hro l' = l_hro l /\ l_hrw l' = l_hrw l
  end.

Lemma complete_ghost : forall l s l' r, complete l s = (l', r) -> ghost_moves l l' r.
Proof.
  intros l s l' r H. unfold complete in H. destruct (finish (l_stk l) s) as [[a k]|s']; inversion H; subst; cbn; auto.
Qed.

Lemma run_cs_ghost : forall t g l g' l' o, run_cs pref t g l = Some (g', l', o) -> ghost_moves l l' (o_ret o).
Proof.
  intros t g l g' l' o H. unfold run_cs in H. destruct (cs pref t (l_act l) g) as [[[g1 ns] out]|]; [|discriminate].
  destruct out; [destruct (complete l s) as [l1 r1] eqn:Ec|..]; injection H as _ <- <-; cbn; auto.
  apply (complete_ghost _ _ _ _ Ec).
Qed.

Lemma step_ghost : forall t c g l g' l' o, step pref t c g l = Some (g', l', o) -> ghost_moves l l' (o_ret o).
Proof.
  intros t c g l g' l' o H. unfold step in H.
  destruct c; destruct (l_act l) as [| | | | |d| |d|]; try discriminate; try (eapply run_cs_ghost; eassumption).
  - destruct (find t (g_wr g)) as [[|n]|]; try discriminate. injection H as _ <- <-. cbn. auto.
  - destruct (find t (g_ww g)) as [[|n]|]; try discriminate. injection H as _ <- <-. cbn. auto.
  - destruct d; try discriminate. injection H as _ <- <-. cbn. auto.
  - destruct d; try discriminate. injection H as _ <- <-. cbn. auto.
Qed.

Definition agrees (x : tally) (l : loc) : Prop := t_cur x = l_op l /\ t_ro x = l_hro l /\ t_rw x = l_hrw l.

Lemma tally_agrees : forall tr s, exec_from pref sys0 tr s -> forall t, agrees (tally_of t tr) (s_l s t).
Proof.
  intros tr s H. remember sys0 as s0. induction H as [s|s tr s1 lab o s2 Hex IH Hs]; intros t; subst.
  - cbn. repeat split.
  - specialize (IH eq_refl). unfold tally_of in *. rewrite fold_left_app. cbn [fold_left].
    destruct (IH t) as (Hc & Hr & Hw). set (x := fold_left (tally_step t) tr tally0) in *.
    unfold tally_step. cbn [fst snd].
    destruct lab as [k op|k c|p]; cbn [sys_step] in Hs.
    + destruct (begin_op op (s_l s1 k)) as [l'|] eqn:Eb; [|discriminate]. inversion Hs; subst. cbn [s_l]. unfold upd.
      destruct (Nat.eqb t k) eqn:Ek; [apply Nat.eqb_eq in Ek; subst k; rewrite Nat.eqb_refl|rewrite Nat.eqb_sym, Ek; repeat split; auto].
      unfold begin_op in Eb. destruct (l_act (s_l s1 t)); try discriminate. destruct (l_stk (s_l s1 t)); try discriminate.
      inversion Eb; subst. cbn. repeat split; auto.
    + destruct (step pref k c (s_g s1) (s_l s1 k)) as [[[g' l'] o']|] eqn:Es; [|discriminate]. inversion Hs; subst. cbn [s_l]. unfold upd.
      destruct (Nat.eqb t k) eqn:Ek; [apply Nat.eqb_eq in Ek; subst k; rewrite Nat.eqb_refl|rewrite Nat.eqb_sym, Ek; repeat split; auto].
      pose proof (step_ghost _ _ _ _ _ _ _ Es) as Hg. unfold ghost_moves in Hg. destruct (o_ret o) as [st|].
      * destruct Hg as (Ho & H1 & H2). unfold agrees. rewrite Ho, H1, H2, <- Hc, <- Hr, <- Hw.
        destruct st; destruct (t_cur x) as [[d|d| |]|] eqn:Ecur; cbn; repeat split; auto; congruence.
      * destruct Hg as (Ho & H1 & H2). unfold agrees. rewrite Ho, H1, H2. repeat split; auto.
    + inversion Hs; subst. cbn [s_l]. repeat split; auto.
Qed.

(* rw_counts on the observable trace: after any execution, a thread that is outside a call has exactly the table entry its
   returned calls add up to, and is in no waiting table *)
Theorem counts_trace : forall tr s, exec_from pref sys0 tr s -> forall t, t_cur (tally_of t tr) = None ->
  find t (g_exec (s_g s)) = mk_ent (t_ro (tally_of t tr)) (t_rw (tally_of t tr)) /\
  memk t (g_wr (s_g s)) = false /\ memk t (g_ww (s_g s)) = false.
Proof.
  intros tr s Hex t Hc. destruct (tally_agrees tr s Hex t) as (H1 & H2 & H3). rewrite H2, H3.
  apply (counts_idle pref); [eapply exec_reachable; eauto|].
  destruct (inv_reachable pref s (exec_reachable pref tr s Hex)) as [_ Hl]. destruct (Hl t) as [Hwf _ _ _].
  rewrite Hc in H1. apply op_none_idle; auto.
Qed.

End P.

(* running a list of labels while collecting the outputs *)
Fixpoint runo (pref : bool) (labs : list label) (acc : list (label * sout)) (s : sys) : option (list (label * sout) * sys) :=
  match labs with
  | [] => Some (acc, s)
  | a :: r => match sys_step pref s a with Some (s', o) => runo pref r (acc ++ [(a, o)]) s' | None => None end
  end.

Lemma runo_exec : forall pref labs s0 acc s tr s', exec_from pref s0 acc s -> runo pref labs acc s = Some (tr, s') -> exec_from pref s0 tr s'.
Proof.
  induction labs as [|a r IH]; cbn [runo]; intros s0 acc s tr s' Hex H.
  - inversion H; subst. exact Hex.
  - destruct (sys_step pref s a) as [[s1 o]|] eqn:E; [|discriminate]. eapply IH; [|exact H]. eapply exec_snoc; eauto.
Qed.
