(* C10 -- preservation of [inv1] by the actions that release, create and obtain objects: the release of an object (member
   slots one by one, then destruction or return to the pool); slab deletion and heap growth through [hidden_core]
   (objects nothing refers to); creation of objects, ObtainObject, Drain; the local beginning of an operation. *)
From Coq Require Import List Arith Bool Lia.
From Muscle Require Import Conc.Pool Conc.PoolProofs Conc.RefCnt Conc.RefInv Conc.RefExcl Conc.RefActs.
Import ListNotations.
Local Open Scope nat_scope.

Section Release.
Variables N K : nat.

Lemma rel_index_lt : forall ob n, n < length (o_mem ob) -> rel_index ob n < length (o_mem ob).
Proof. intros ob n H. unfold rel_index. destruct (o_pooled ob); lia. Qed.

Lemma rel_index_inj : forall ob n m, n < length (o_mem ob) -> m < length (o_mem ob) -> rel_index ob n = rel_index ob m -> n = m.
Proof. intros ob n m Hn Hm. unfold rel_index. destruct (o_pooled ob); lia. Qed.

Lemma rel_index_surj : forall ob j, j < length (o_mem ob) -> exists n, n < length (o_mem ob) /\ rel_index ob n = j.
Proof.
  intros ob j Hj. unfold rel_index. destruct (o_pooled ob).
  - exists j; auto.
  - exists (length (o_mem ob) - 1 - j). lia.
Qed.

Lemma processed_all_none : forall ob, processed_none ob (length (o_mem ob)) -> all_none (o_mem ob) = true.
Proof.
  intros ob H. unfold all_none. apply forallb_forall. intros x Hx.
  apply In_nth with (d := None) in Hx. destruct Hx as (j & Hj & E).
  destruct (rel_index_surj ob j Hj) as (n & Hn & En). specialize (H n Hn). rewrite En, E in H. subst x. reflexivity.
Qed.

Lemma act_rel_member : forall s t stk o n rest prog, ctx K s t stk (ARel o n) rest prog ->
  n < length (o_mem (hobj s o)) ->
  let ob := hobj s o in let j := rel_index ob n in
  inv1 K (with_thr s t (mkThr stk (dec_of (nth j (o_mem ob) None) ++ ARel o (S n) :: rest) prog)
            (upd (s_heap s) o (set_mem ob (upd (o_mem ob) j None))) (s_pool s)).
Proof.
  intros s t stk o n rest prog C Hn ob j.
  pose proof (shape_cons (ctx_shape K C)) as Hcas. cbn in Hcas.
  pose proof (ctx_act K (ARel o n) C (or_introl eq_refl)) as A. cbn in A. destruct A as (Arel & An & Aproc).
  assert (Hj : j < length (o_mem ob)) by (apply rel_index_lt; auto).
  apply (write_core K s t stk (ARel o n) rest prog (RMem o j) None); auto.
  - cbn. split; auto. right; eauto.
  - intros z. rewrite sumf_app, dec_of_unit. unfold j, ob, hobj. cbn. lia.
  - intros z. rewrite sumf_app, dec_of_debt. cbn. lia.
  - intros z. rewrite sumf_app, dec_of_rel. cbn. lia.
  - change (dec_of (nth j (o_mem ob) None) ++ ARel o (S n) :: rest) with (dec_of (nth j (o_mem ob) None) ++ [ARel o (S n)] ++ rest).
    rewrite app_assoc. apply cascade_shape; auto. rewrite forallb_app, dec_of_frames. reflexivity.
  - intros b Hin. apply in_app_or in Hin. destruct Hin as [Hin|[<-|Hin]]; auto.
    + right. eapply dec_of_ok; eauto.
    + right. cbn [act_ok]. rewrite hobj_wt.
      assert (Ho : o < length (s_heap s)) by (apply releasing_lt; auto).
      rewrite get_upd_same by auto. cbn [o_mem set_mem o_st]. split; [exact Arel|]. split; [rewrite upd_length; unfold ob in *; lia|].
      intros m Hm. unfold rel_index. cbn [o_pooled set_mem o_mem]. rewrite upd_length.
      change (if o_pooled ob then m else length (o_mem ob) - 1 - m) with (rel_index ob m).
      destruct (Nat.eq_dec (rel_index ob m) j) as [Ej|Ej].
      * rewrite Ej. apply nth_upd_same; auto.
      * rewrite nth_upd_other by auto. apply Aproc.
        destruct (Nat.eq_dec m n) as [->|]; [exfalso; apply Ej; reflexivity|lia].
Qed.

Lemma act_rel : forall s t stk o n rest prog, ctx K s t stk (ARel o n) rest prog ->
  forall h' stk' todo' p' ev, do_act N K (s_heap s) (s_pool s) stk (ARel o n) rest = (h', stk', todo', p', ev) ->
  inv1 K (with_thr s t (mkThr stk' todo' prog) h' p') /\ bad124 ev = false.
Proof.
  intros s t stk o n rest prog C h' stk' todo' p' ev Hdo.
  pose proof (ctx_act K (ARel o n) C (or_introl eq_refl)) as A. cbn in A. destruct A as (Arel & An & Aproc).
  pose proof C as [I Ht E].
  assert (Ho : o < length (s_heap s)) by (apply releasing_lt; auto).
  cbn [do_act] in Hdo. unfold hobj in Arel, An, Aproc. rewrite Arel in Hdo. cbn [negb] in Hdo.
  destruct (n <? length (o_mem (get_obj (s_heap s) o))) eqn:En.
  - apply Nat.ltb_lt in En. inversion Hdo; subst; clear Hdo. split; [|reflexivity].
    apply (act_rel_member s t stk' o n rest prog C En).
  - apply Nat.ltb_ge in En. assert (Enn : n = length (o_mem (get_obj (s_heap s) o))) by lia.
    set (ob := get_obj (s_heap s) o) in *.
    assert (Hall : all_none (o_mem ob) = true) by (apply processed_all_none; rewrite <- Enn; auto).
    assert (Hnl : is_live ob = false) by (apply releasing_not_live; auto).
    pose proof (shape_cons (ctx_shape K C)) as Hcas. cbn in Hcas.
    pose proof (i_nolive K s I o Hnl) as Hu0. pose proof (i_ghost K s I o Ho) as HG. unfold hobj in HG. fold ob in HG. rewrite Hnl in HG.
    (* o leaves the Releasing state; its frame is replaced by [pre] *)
    assert (Hstate : forall ob' pre p2, o_mem ob' = o_mem ob -> o_cnt ob' = o_cnt ob ->
              o_births ob' = o_births ob -> o_deaths ob' = o_deaths ob -> (o_st ob' = Pooled \/ o_st ob' = Dead) ->
              (pre = [] \/ exists sd, pre = [ASlabDel sd]) ->
              inv1 K (with_thr s t (mkThr stk (pre ++ rest) prog) (upd (s_heap s) o ob') p2)).
    { intros ob' pre p2 E1 E2 E4 E5 E6 Hpre.
      assert (Hp : forallb is_frame pre = true /\ forall z, sumf (act_unit z) pre = 0 /\ sumf (act_debt z) pre = 0 /\ sumf (rel_count z) pre = 0)
        by (destruct Hpre as [->|(sd & ->)]; auto).
      destruct Hp as (Hpf & Hp).
      assert (Hst' : is_live ob' = false /\ is_releasing ob' = false) by (unfold is_live, is_releasing; destruct E6 as [-> | ->]; auto).
      destruct Hst' as (Hnl' & Hnr').
      apply (point_core K s t stk (ARel o n :: rest) prog (pre ++ rest) prog o); auto; unfold hobj; fold ob;
        rewrite ?sumf_app; cbn [sumf act_unit act_debt rel_count].
      - (* quiet *) unfold quiet. rewrite E1. destruct E6 as [-> | ->]; exact Hall.
      - (* why t may touch o *) right; right; right; right. split; [exact Hnl|]. intros _. exists n. rewrite E. left; reflexivity.
      - (* elsewhere *) intros z Hne. rewrite !sumf_app. destruct (Hp z) as (-> & -> & ->). cbn. rewrite (eq1_ne o z) by auto. auto.
      - (* count *) destruct (Hp o) as (-> & -> & _). lia.
      - (* not live *) destruct (Hp o) as (-> & _). lia.
      - (* releases *) destruct (Hp o) as (_ & _ & ->). rewrite Arel, Hnr', eq1_refl. lia.
      - (* ghost *) rewrite Hnl'. lia.
      - (* shape *) apply cascade_shape; auto.
      - (* own actions *) intros b Hin. apply in_app_or in Hin. destruct Hin as [Hin|Hin].
        + destruct Hpre as [->|(sd & ->)]; [destruct Hin|]. destruct Hin as [<-|[]]. exact Logic.I.
        + apply (point_kept s _ stk o ob' b (ctx_act K b C (or_intror Hin))); auto.
          * intros m ->. exfalso. eapply (two_rels K s t o n m rest); eauto. rewrite E. reflexivity.
          * intros y ->. destruct (cascade_kinds rest _ Hcas Hin) as [Hf|(l & v & Hb)]; discriminate. }
    destruct (o_pooled ob) eqn:Epool.
    + destruct (pool_release N (s_pool s) o) as [p2 del] eqn:Hrel.
      destruct del as [sd|]; inversion Hdo; subst; clear Hdo; split; try reflexivity.
      * apply (Hstate (set_st (set_val ob 0) Pooled) [ASlabDel sd] p'); eauto.
      * apply (Hstate (set_st (set_val ob 0) Pooled) [] p'); auto.
    + inversion Hdo; subst; clear Hdo; split; try reflexivity.
      apply (Hstate (set_st ob Dead) [] (s_pool s)); auto.
Qed.

(* ---- objects nothing refers to ---- *)

Definition inert (ob : obj) : Prop :=
  is_live ob = false /\ is_releasing ob = false /\ o_cnt ob = 0 /\ length (o_mem ob) = K /\ all_none (o_mem ob) = true /\
  o_births ob = o_deaths ob.

Lemma hidden_none : forall s z, inv1 K s -> is_live (hobj s z) = false -> is_releasing (hobj s z) = false ->
  all_none (o_mem (hobj s z)) = true.
Proof.
  intros s z I Hl Hr. destruct (lt_dec z (length (s_heap s))) as [Hz|Hz].
  - destruct (i_mem K s I z Hz) as (_ & Q). unfold quiet, is_live, is_releasing in *. destruct (o_st (hobj s z)); auto; discriminate.
  - unfold hobj. rewrite get_beyond by lia. reflexivity.
Qed.

(* the heap grows by, or changes at, objects that were neither live nor being released and are [inert]
   afterwards: no thread can tell *)
Lemma hidden_core : forall s h' p', inv1 K s -> length (s_heap s) <= length h' ->
  (forall z, z < length h' ->
     (z < length (s_heap s) /\ get_obj h' z = hobj s z) \/
     (is_live (hobj s z) = false /\ is_releasing (hobj s z) = false /\ inert (get_obj h' z))) ->
  inv1 K (mkSt h' (s_thr s) p').
Proof.
  intros s h' p' I Hlen Hcase. set (s' := mkSt h' (s_thr s) p').
  assert (Hobj : forall z, hobj s' z = hobj s z \/
            (is_live (hobj s z) = false /\ all_none (o_mem (hobj s z)) = true /\ inert (hobj s' z) /\ o_cnt (hobj s z) = 0 /\
             is_releasing (hobj s z) = false)).
  { intros z. destruct (lt_dec z (length h')) as [Hl|Hl].
    - destruct (Hcase z Hl) as [(_ & E)|(A & B & C)]; auto. right. destruct (dead_cnt0 K s z I A). auto using hidden_none.
    - left. unfold hobj, s'; cbn [s_heap]. rewrite !get_beyond by lia. reflexivity. }
  assert (Hlive : forall z, is_live (hobj s' z) = is_live (hobj s z)).
  { intros z. destruct (Hobj z) as [->|(A & _ & (B & _) & _)]; congruence. }
  assert (Hrelg : forall z, is_releasing (hobj s' z) = is_releasing (hobj s z)).
  { intros z. destruct (Hobj z) as [->|(_ & _ & (_ & B & _) & _ & A)]; congruence. }
  assert (Hcnt : forall z, o_cnt (hobj s' z) = o_cnt (hobj s z)).
  { intros z. destruct (Hobj z) as [->|(_ & _ & (_ & _ & B & _) & A & _)]; congruence. }
  assert (Hunits : forall z, units z s' = units z s).
  { intros z. unfold units, s'; cbn [s_thr s_heap]. f_equal. apply (sumf_nth_ext _ _ dobj); [reflexivity|]. intros i.
    change (obj_units z (hobj s' i) = obj_units z (hobj s i)).
    destruct (Hobj i) as [->|(_ & A & (_ & _ & _ & _ & B & _) & _)]; auto. unfold obj_units. rewrite !all_none_refs; auto. }
  constructor.
  - intros z. rewrite Hunits, Hcnt. apply (i_count K s I).
  - intros z Hz. rewrite Hunits. apply (i_nolive K s I). rewrite <- Hlive; auto.
  - intros z Hz. destruct (Hcase z Hz) as [(Hl & E)|(_ & _ & (_ & _ & _ & A & B & _))].
    + unfold hobj, s'; cbn [s_heap]. rewrite E. apply (i_mem K s I); auto.
    + split; auto. unfold quiet, hobj, s'; cbn [s_heap]. destruct (o_st (get_obj h' z)); auto.
  - intros u Hu. apply (i_shape K s I u Hu).
  - intros u a Hu Hin. apply (acts_kept K s s'); auto.
    + intros q i Hq. destruct (held_live K s u i q I Hu Hq) as (Hl & _). destruct (Hobj q) as [->|(B & _)]; [auto|congruence].
    + intros o _. rewrite Hlive, Hcnt, Hunits. auto.
    + intros o n Ho. pose proof (rel_releasing K s o u n I Hu Ho). destruct (Hobj o) as [->|(_ & _ & _ & _ & B)]; [auto|congruence].
  - intros z. rewrite Hrelg. apply (i_rels K s I z).
  - intros z Hz. destruct (Hcase z Hz) as [(Hl & E)|(_ & _ & (A & _ & _ & _ & _ & B))].
    + unfold hobj, s'; cbn [s_heap]. rewrite E. apply (i_ghost K s I); auto.
    + unfold hobj, s'; cbn [s_heap]. rewrite A, B. lia.
Qed.

(* ---- slab deletion ---- *)

Lemma set_range_length : forall n h base g, length (set_range h base n g) = length h.
Proof. induction n as [|n IH]; intros; cbn; auto. rewrite IH. apply upd_length. Qed.

Lemma set_range_get : forall n h base g z, (forall ob, g (g ob) = g ob) -> g dobj = dobj ->
  get_obj (set_range h base n g) z = if (base <=? z) && (z <? base + n) then g (get_obj h z) else get_obj h z.
Proof.
  induction n as [|n IH]; intros h base g z Hg Hd; cbn [set_range].
  - destruct (base <=? z) eqn:E1; cbn [andb]; auto. apply Nat.leb_le in E1.
    replace (z <? base + 0) with false by (symmetry; apply Nat.ltb_ge; lia). reflexivity.
  - rewrite IH by auto.
    destruct (Nat.eq_dec z (base + n)) as [->|Hne].
    + assert (E1 : (base <=? base + n) = true) by (apply Nat.leb_le; lia).
      assert (E2 : (base + n <? base + n) = false) by (apply Nat.ltb_ge; lia).
      assert (E3 : (base + n <? base + S n) = true) by (apply Nat.ltb_lt; lia).
      rewrite E1, E2, E3. cbn [andb].
      destruct (lt_dec (base + n) (length h)) as [Hl|Hl].
      * apply get_upd_same; auto.
      * rewrite upd_oob by lia. unfold get_obj. rewrite nth_overflow by lia. auto.
    + rewrite get_upd_other by auto.
      destruct (base <=? z) eqn:E1; cbn [andb]; auto.
      destruct (z <? base + n) eqn:E2.
      * assert (E3 : (z <? base + S n) = true) by (apply Nat.ltb_lt; apply Nat.ltb_lt in E2; lia). rewrite E3. reflexivity.
      * assert (E3 : (z <? base + S n) = false) by (apply Nat.ltb_ge; apply Nat.ltb_ge in E2; lia). rewrite E3. reflexivity.
Qed.

Lemma range_all_spec : forall n h base f, range_all h base n f = true -> forall z, base <= z < base + n -> f (get_obj h z) = true.
Proof.
  induction n as [|n IH]; intros h base f H z Hz; [lia|]. cbn in H. apply andb_true_iff in H. destruct H as (H1 & H2).
  destruct (Nat.eq_dec z (base + n)) as [->|Hne]; auto. apply (IH h base f H2). lia.
Qed.

Lemma act_slabdel : forall s t stk sd rest prog, ctx K s t stk (ASlabDel sd) rest prog ->
  forall h' stk' todo' p' ev, do_act N K (s_heap s) (s_pool s) stk (ASlabDel sd) rest = (h', stk', todo', p', ev) ->
  inv1 K (with_thr s t (mkThr stk' todo' prog) h' p') /\ bad124 ev = false.
Proof.
  intros s t stk sd rest prog C h' stk' todo' p' ev Hdo. pose proof C as [I Ht E].
  assert (Hsh : shape rest) by (apply (cascade_shape rest []); [exact (shape_cons (ctx_shape K C))|reflexivity]).
  cbn in Hdo. destruct (range_all (s_heap s) (sl_base sd) N is_pooled_st) eqn:Hr; inversion Hdo; subst; clear Hdo; split; try reflexivity.
  - pose proof (range_all_spec _ _ _ _ Hr) as Hpooled.
    set (h1 := set_range (s_heap s) (sl_base sd) N (fun ob => set_st ob Dead)).
    assert (I1 : inv1 K (mkSt h1 (s_thr s) (s_pool s))).
    { apply hidden_core; auto; unfold h1; rewrite set_range_length; auto. intros z Hz. rewrite set_range_get by auto.
      destruct ((sl_base sd <=? z) && (z <? sl_base sd + N)) eqn:Ez; [right|left; auto].
      apply andb_true_iff in Ez. destruct Ez as (E1 & E2). apply Nat.leb_le in E1. apply Nat.ltb_lt in E2.
      assert (Hp : is_pooled_st (hobj s z) = true) by (apply Hpooled; lia).
      unfold is_pooled_st in Hp. destruct (o_st (hobj s z)) eqn:Est; try discriminate.
      assert (Hnl : is_live (hobj s z) = false) by (unfold is_live; rewrite Est; auto).
      destruct (dead_cnt0 K s z I Hnl) as (Hc & _). destruct (i_mem K s I z Hz) as (Hm & Hq). pose proof (i_ghost K s I z Hz) as Hg.
      unfold quiet in Hq. rewrite Est in Hq. rewrite Hnl in Hg. unfold is_releasing. rewrite Est.
      split; auto. split; auto. unfold inert, hobj in *. cbn. repeat split; auto. lia. }
    apply (pop_core K (mkSt h1 (s_thr s) (s_pool s)) t stk' (ASlabDel sd) todo' prog (s_pool s)); auto. constructor; auto.
  - apply (pop_core K s t stk' (ASlabDel sd) todo' prog (s_pool s) C); auto.
Qed.


(* ---- extending the heap by objects nobody refers to ---- *)

Lemma get_app_old : forall h new z, z < length h -> get_obj (h ++ new) z = get_obj h z.
Proof. intros. unfold get_obj. apply app_nth1; auto. Qed.

Lemma get_app_new : forall h new z, length h <= z -> get_obj (h ++ new) z = nth (z - length h) new dobj.
Proof. intros. unfold get_obj. apply app_nth2; auto. Qed.

Lemma inert_nth : forall new i, Forall inert new -> i < length new -> inert (nth i new dobj).
Proof. intros new i H Hi. rewrite Forall_forall in H. apply H. apply nth_In; auto. Qed.

Lemma append_core : forall s new p', inv1 K s -> Forall inert new ->
  inv1 K (mkSt (s_heap s ++ new) (s_thr s) p').
Proof.
  intros s new p' I Hnew. apply hidden_core; auto; [rewrite app_length; lia|]. intros z Hz.
  destruct (lt_dec z (length (s_heap s))) as [Hl|Hl]; [left; split; auto; apply get_app_old; auto|right].
  unfold hobj. rewrite get_beyond, get_app_new by lia. split; [reflexivity|]. split; [reflexivity|].
  apply inert_nth; auto. rewrite app_length in Hz. lia.
Qed.

(* ---- an object comes to life and is about to get its first reference ---- *)

Lemma birth_core : forall s t stk todo prog prog' o l mid p',
  inv1 K s -> t < length (s_thr s) -> thr s t = mkThr stk todo prog ->
  (forall z, sumf (act_unit z) todo = 0) -> (forall z, sumf (act_debt z) todo = 0) -> (forall z, sumf (rel_count z) todo = 0) ->
  o < length (s_heap s) -> is_live (hobj s o) = false -> is_releasing (hobj s o) = false ->
  wloc_ok (s_heap s) stk l -> (mid = [] \/ mid = [ATake l]) ->
  inv1 K (with_thr s t (mkThr stk (AInc o None :: mid ++ [AStore l (Some (o, true))]) prog')
            (upd (s_heap s) o (born (hobj s o))) p').
Proof.
  intros s t stk todo prog prog' o l mid p' I Ht E Tu Td Tr Ho Hnl Hnr W Hmid.
  set (acts := AInc o None :: mid ++ [AStore l (Some (o, true))]).
  destruct (dead_cnt0 K s o I Hnl) as (Hc0 & _).
  pose proof (i_ghost K s I o Ho) as HG. rewrite Hnl in HG.
  assert (Hsums : forall z, sumf (act_unit z) acts = eq1 o z /\ sumf (act_debt z) acts = eq1 o z /\ sumf (rel_count z) acts = 0).
  { intros z. unfold acts. cbn [sumf]. rewrite !sumf_app. destruct Hmid as [-> | ->]; cbn; unfold eq1; destruct (o =? z); auto. }
  assert (Hq : forall q i, nth i stk None = Some (q, true) -> q <> o).
  { intros q i Hq ->. assert (Hq' : nth i (t_stk (thr s t)) None = Some (o, true)) by (rewrite E; auto).
    destruct (held_live K s t i o I Ht Hq'). congruence. }
  assert (Hwl : wloc_ok (upd (s_heap s) o (born (hobj s o))) stk l).
  { destruct l as [i|q j]; cbn in W |- *; auto. destruct W as (W1 & W2 & (i & W3)).
    assert (q <> o) by (eapply Hq; eauto). rewrite get_upd_other by auto. eauto. }
  assert (Hns : not_self l (Some o)).
  { destruct l as [i|q j]; cbn in W |- *; auto. destruct W as (_ & _ & (i & W3)). intros Heq. inversion Heq; subst.
    eapply Hq; eauto. }
  apply (point_core K s t stk todo prog acts prog' o); auto.
  - (* quiet *) exact Logic.I.
  - (* why t may touch o *) right; right; right; right. split; auto. intros Hr. congruence.
  - (* elsewhere *) intros z Hne. destruct (Hsums z) as (-> & -> & ->). rewrite Tu, Td, Tr, (eq1_ne o z) by auto. auto.
  - (* count *) destruct (Hsums o) as (-> & -> & _). rewrite Tu, Td. cbn. lia.
  - (* not live *) discriminate.
  - (* releases *) destruct (Hsums o) as (_ & _ & ->). rewrite Tr, Hnr. reflexivity.
  - (* ghost *) cbn. lia.
  - (* shape *) unfold acts. destruct Hmid as [-> | ->]; [apply sh_inc1|apply sh_inc2].
  - (* own actions *) intros b [<-|Hin].
    + (* the one unit designating o is the store this thread is about to make *)
      cbn [act_ok src_ok]. rewrite hobj_wt, get_upd_same by auto. split; [reflexivity|]. split; [exact Hc0|].
      pose proof (wt_units s t (mkThr stk acts prog') (upd (s_heap s) o (born (hobj s o))) p' o Ht) as HU.
      rewrite heap_units_keep, E in HU by reflexivity. unfold thr_units in HU. cbn [t_stk t_todo] in HU.
      destruct (Hsums o) as (Hs1 & _). rewrite Hs1, Tu, eq1_refl in HU. pose proof (i_nolive K s I o Hnl). lia.
    + apply in_app_or in Hin. destruct Hin as [Hin|[<-|[]]]; [|split; auto].
      destruct Hmid as [-> | ->]; [destruct Hin|]. destruct Hin as [<-|[]]. exact Hwl.
Qed.

(* ---- ObtainObject, Drain ---- *)

Lemma inv1_pool : forall s p', inv1 K s -> inv1 K (mkSt (s_heap s) (s_thr s) p').
Proof.
  intros s p' I. pose proof (append_core s [] p' I (Forall_nil _)) as H. rewrite app_nil_r in H. exact H.
Qed.

Lemma fresh_inert : forall pooled st, st = Pooled \/ st = Dead -> inert (fresh_obj K pooled st).
Proof.
  intros pooled st Hst. unfold inert, fresh_obj, is_live, is_releasing. cbn.
  rewrite repeat_length. repeat split; auto; try (destruct Hst as [-> | ->]; reflexivity).
  apply all_none_repeat.
Qed.

Lemma single_rest : forall a rest, shape (a :: rest) -> single_ok a -> rest = [].
Proof. intros a rest H Ha. apply shape_cons in H. destruct a; cbn in Ha; try tauto; exact H. Qed.

(* the actions SetRef(o, true) expands to when o is a brand-new / just obtained object *)
Lemma setref_fresh : forall l cur o, cur <> Some (o, true) ->
  exists mid, setref_acts l cur (Some o) true None = AInc o None :: mid ++ [AStore l (Some (o, true))] /\ (mid = [] \/ mid = [ATake l]).
Proof.
  intros l cur o Hne. unfold setref_acts. destruct (opt_eqb (ptr cur) (Some o)) eqn:Ep.
  - destruct cur as [[q c]|]; cbn in Ep; [|discriminate]. apply Nat.eqb_eq in Ep. subst q.
    destruct c; [congruence|]. cbn. exists []. auto.
  - unfold take_acts. destruct cur as [[q [|]]|]; cbn.
    + exists [ATake l]. auto.
    + exists []. auto.
    + exists []. auto.
Qed.

Lemma act_poolobt : forall s t stk l rest prog, ctx K s t stk (APoolObt l) rest prog ->
  forall h' stk' todo' p' ev, do_act N K (s_heap s) (s_pool s) stk (APoolObt l) rest = (h', stk', todo', p', ev) ->
  inv1 K (with_thr s t (mkThr stk' todo' prog) h' p') /\ bad124 ev = false.
Proof.
  intros s t stk l rest prog C h' stk' todo' p' ev Hdo. pose proof C as [I Ht E].
  pose proof (single_rest _ _ (ctx_shape K C) Logic.I) as ->.
  cbn [do_act] in Hdo. destruct (pool_obtain N (length (s_heap s)) (s_pool s)) as [[p2 o] created] eqn:Hobt.
  set (h1 := match created with Some _ => s_heap s ++ repeat (fresh_obj K true Pooled) N | None => s_heap s end) in *.
  assert (I1 : inv1 K (mkSt h1 (s_thr s) p2)).
  { unfold h1. destruct created.
    - apply append_core; auto. apply Forall_forall. intros x Hx. apply repeat_spec in Hx. subst. apply fresh_inert; auto.
    - apply inv1_pool; auto. }
  set (s1 := mkSt h1 (s_thr s) p2) in *.
  assert (E1 : thr s1 t = mkThr stk [APoolObt l] prog) by exact E.
  assert (W1 : wloc_ok h1 stk l).
  { pose proof (i_acts K s1 I1 t (APoolObt l) Ht) as A. rewrite E1 in A. apply A. left; auto. }
  destruct (is_pooled_st (get_obj h1 o) && is_default (get_obj h1 o)) eqn:Hok.
  - inversion Hdo; subst; clear Hdo. split; [|reflexivity].
    apply andb_true_iff in Hok. destruct Hok as (Hp & Hdf).
    assert (Ho : o < length h1).
    { destruct (lt_dec o (length h1)); auto. unfold get_obj in Hp. rewrite nth_overflow in Hp by lia. discriminate. }
    assert (Hnl : is_live (hobj s1 o) = false) by (unfold hobj, is_live, is_pooled_st in *; cbn [s_heap s1]; destruct (o_st (get_obj h1 o)); auto; discriminate).
    assert (Hnr : is_releasing (hobj s1 o) = false) by (unfold hobj, is_releasing, is_pooled_st in *; cbn [s_heap s1]; destruct (o_st (get_obj h1 o)); auto; discriminate).
    assert (Hcur : read_slot h1 stk' l <> Some (o, true)).
    { intros Hc. destruct l as [i|q j]; cbn in Hc.
      - assert (Hc' : nth i (t_stk (thr s1 t)) None = Some (o, true)) by (rewrite E1; auto).
        destruct (held_live K s1 t i o I1 Ht Hc'). congruence.
      - destruct (member_live K s1 q j o I1 Hc). congruence. }
    change (if opt_eqb (ptr (read_slot h1 stk' l)) (Some o)
           then if counting (read_slot h1 stk' l) then [] else [AInc o None; AStore l (Some (o, true))]
           else AInc o None :: take_acts l (read_slot h1 stk' l) ++ [AStore l (Some (o, true))])
      with (setref_acts l (read_slot h1 stk' l) (Some o) true None).
    destruct (setref_fresh l _ o Hcur) as (mid & -> & Hmid). rewrite app_nil_r.
    apply (birth_core s1 t stk' [APoolObt l] prog prog o l mid p'); auto.
  - inversion Hdo; subst; clear Hdo. split; [|reflexivity].
    apply (pop_core K s1 t stk' (APoolObt l) [] prog p'); auto; [constructor; auto|apply (sh_frames []); reflexivity].
Qed.

Lemma act_drain : forall s t stk rest prog, ctx K s t stk ADrain rest prog ->
  forall h' stk' todo' p' ev, do_act N K (s_heap s) (s_pool s) stk ADrain rest = (h', stk', todo', p', ev) ->
  inv1 K (with_thr s t (mkThr stk' todo' prog) h' p') /\ bad124 ev = false.
Proof.
  intros s t stk rest prog C h' stk' todo' p' ev Hdo. pose proof C as [I Ht E].
  pose proof (single_rest _ _ (ctx_shape K C) Logic.I) as ->.
  cbn [do_act] in Hdo. destruct (pool_drain N (s_pool s)) as [p2 dels] eqn:Hdr.
  inversion Hdo; subst; clear Hdo. split; [|reflexivity]. rewrite app_nil_r.
  assert (Hf : forallb is_frame (map ASlabDel dels) = true).
  { apply forallb_forall. intros x Hx. apply in_map_iff in Hx. destruct Hx as (sd & <- & _). reflexivity. }
  assert (Hz : forall z, sumf (act_unit z) (map ASlabDel dels) = 0 /\ sumf (act_debt z) (map ASlabDel dels) = 0 /\ sumf (rel_count z) (map ASlabDel dels) = 0).
  { intros z. clear Hdr Hf. induction dels as [|d ds IH]; cbn; auto. }
  apply (slots_core K s t stk' [ADrain] prog stk' (map ASlabDel dels) prog (s_heap s) p' (fun _ => 0)); auto 10; cbn [sumf act_unit act_debt rel_count].
  - intros z. destruct (Hz z) as (-> & _). lia.
  - intros z. destruct (Hz z) as (_ & -> & _). reflexivity.
  - intros z Hz0. lia.
  - intros z. destruct (Hz z) as (_ & _ & ->). reflexivity.
  - apply sh_frames; auto.
  - intros b Hb. apply in_map_iff in Hb. destruct Hb as (sd & <- & _). exact Logic.I.
Qed.


(* ---- the local beginning of an operation ---- *)

(* what resolution of a program location yields *)
Lemma resolve_r_spec : forall {h stk l rs p}, resolve_r h stk l = Some (rs, p) ->
  p = read_slot h stk rs /\
  match rs with
  | RStk i => i < length stk
  | RMem q j => j < length (o_mem (get_obj h q)) /\ exists i, nth i stk None = Some (q, true)
  end.
Proof.
  intros h stk [i|i j] rs p H; cbn [resolve_r] in H.
  - destruct (i <? length stk) eqn:Ei; inversion H; subst. apply Nat.ltb_lt in Ei. cbn. split; auto.
  - destruct (nth i stk None) as [[q [|]]|] eqn:Eq; try discriminate.
    destruct (j <? length (o_mem (get_obj h q))) eqn:Ej; inversion H; subst. apply Nat.ltb_lt in Ej. cbn. split; auto. split; eauto.
Qed.

Lemma resolve_w_spec : forall {h stk l v rd q}, resolve_w h stk l v = Some (rd, q) ->
  q = read_slot h stk rd /\ wloc_ok h stk rd /\ not_self rd v.
Proof.
  intros h stk [i|i j] v rd q H; cbn [resolve_w] in H.
  - destruct (i <? length stk) eqn:Ei; inversion H; subst. apply Nat.ltb_lt in Ei. cbn. auto.
  - destruct (nth i stk None) as [[y [|]]|] eqn:Ey; try discriminate.
    destruct ((j <? length (o_mem (get_obj h y))) && (o_cnt (get_obj h y) =? 1) && negb (opt_eqb v (Some y))) eqn:Ec; inversion H; subst.
    apply andb_true_iff in Ec. destruct Ec as (Ec & E3). apply andb_true_iff in Ec. destruct Ec as (E1 & E2).
    apply Nat.ltb_lt in E1. apply Nat.eqb_eq in E2. apply negb_true_iff in E3. cbn. split; auto. split; [split; auto; split; eauto|].
    intros ->. cbn in E3. rewrite Nat.eqb_refl in E3. discriminate.
Qed.

Lemma resolve_rw : forall {h stk l x r1 v1 r2 v2}, resolve_r h stk l = Some (r1, v1) -> resolve_w h stk l x = Some (r2, v2) ->
  r1 = r2 /\ v1 = v2.
Proof.
  intros h stk [i|i j] x r1 v1 r2 v2 H1 H2; cbn [resolve_r resolve_w] in *.
  - destruct (i <? length stk); inversion H1; inversion H2; subst; auto.
  - destruct (nth i stk None) as [[y [|]]|]; try discriminate.
    destruct (j <? length (o_mem (get_obj h y))); cbn [andb] in *; try discriminate.
    destruct ((o_cnt (get_obj h y) =? 1) && negb (opt_eqb x (Some y))); inversion H1; inversion H2; subst; auto.
Qed.

(* OSwap either does nothing or writes each of two distinct writable slots with the other's content *)
Lemma begin_swap : forall {h stk a b h' stk' todo' ok}, begin_op K h stk (OSwap a b) = (h', stk', todo', ok) ->
  todo' = [] /\
  ((h' = h /\ stk' = stk) \/
   exists ra rb h1 stk1, wloc_ok h stk ra /\ wloc_ok h stk rb /\
     not_self ra (ptr (read_slot h stk rb)) /\ not_self rb (ptr (read_slot h stk ra)) /\ rloc_eqb ra rb = false /\
     write_slot h stk ra (read_slot h stk rb) = (h1, stk1) /\ write_slot h1 stk1 rb (read_slot h stk ra) = (h', stk')).
Proof.
  intros h stk a b h' stk' todo' ok Hb. cbn [begin_op] in Hb.
  destruct (resolve_r h stk a) as [[ra0 va]|] eqn:Era; [|injection Hb as <- <- <- _; auto].
  destruct (resolve_r h stk b) as [[rb0 vb]|] eqn:Erb; [|injection Hb as <- <- <- _; auto].
  destruct (resolve_w h stk a (ptr vb)) as [[ra qa]|] eqn:Ewa; [|injection Hb as <- <- <- _; auto].
  destruct (resolve_w h stk b (ptr va)) as [[rb qb]|] eqn:Ewb; [|injection Hb as <- <- <- _; auto].
  destruct (resolve_rw Era Ewa) as (<- & <-). destruct (resolve_rw Erb Ewb) as (<- & <-).
  destruct (resolve_r_spec Era) as (-> & _). destruct (resolve_r_spec Erb) as (-> & _).
  destruct (resolve_w_spec Ewa) as (_ & Wa & NSa). destruct (resolve_w_spec Ewb) as (_ & Wb & NSb).
  destruct (rloc_eqb ra0 rb0) eqn:Eab; [injection Hb as <- <- <- _; auto|].
  destruct (write_slot h stk ra0 (read_slot h stk rb0)) as [h1 stk1] eqn:Hw1.
  destruct (write_slot h1 stk1 rb0 (read_slot h stk ra0)) as [h2 stk2] eqn:Hw2.
  injection Hb as <- <- <- _. split; auto. right. exists ra0, rb0, h1, stk1. auto 10.
Qed.

(* the pending work an operation starts with: shape, justification, balance *)
Record acts_ok (s : state) (t : nat) (stk : list ref) (acts : list act) : Prop := mkActsOk {
  ao_shape : shape acts;
  ao_ok : forall b, In b acts -> act_ok s stk b;
  ao_nofresh : forall o, ~ In (AInc o None) acts;
  ao_bal : forall z, sumf (act_unit z) acts = sumf (act_debt z) acts;
  ao_rel : forall z, sumf (rel_count z) acts = 0;
  ao_debt : forall z, 0 < sumf (act_debt z) acts -> touch_c s t z /\ is_live (hobj s z) = true
}.

Lemma begin_core : forall s t stk op prog acts, inv1 K s -> t < length (s_thr s) ->
  thr s t = mkThr stk [] (op :: prog) -> acts_ok s t stk acts ->
  inv1 K (with_thr s t (mkThr stk acts prog) (s_heap s) (s_pool s)).
Proof.
  intros s t stk op prog acts I Ht E [A1 A2 A3 A4 A5 A6].
  apply (slots_core K s t stk [] (op :: prog) stk acts prog (s_heap s) (s_pool s) (fun z => sumf (act_debt z) acts)); auto 10; cbn [sumf].
  - intros z. rewrite A4. lia.
  - intros b Hb. apply (heap_same_ok s _ stk b); [reflexivity| |auto].
    intros o ->. exfalso. eapply A3; eauto.
Qed.

Lemma ok_plain : forall s t stk acts, shape acts ->
  (forall b, In b acts -> act_ok s stk b /\ forall z, act_unit z b = 0 /\ act_debt z b = 0 /\ rel_count z b = 0) ->
  acts_ok s t stk acts.
Proof.
  intros s t stk acts Hsh H.
  assert (Z : forall z, sumf (act_unit z) acts = 0 /\ sumf (act_debt z) acts = 0 /\ sumf (rel_count z) acts = 0)
    by (intros z; repeat split; apply sumf_zero; intros b Hb; apply (H b Hb)).
  constructor; auto.
  - intros b Hb. apply (H b Hb).
  - intros o Hin. destruct (H _ Hin) as (_ & Hz). destruct (Hz o) as (_ & Hd & _). cbn in Hd. rewrite eq1_refl in Hd. discriminate.
  - intros z. destruct (Z z) as (-> & -> & _). reflexivity.
  - intros z. apply Z.
  - intros z Hz. destruct (Z z) as (_ & Hd & _). lia.
Qed.

Lemma acts_nil : forall s t stk, acts_ok s t stk [].
Proof. intros. apply ok_plain; [apply (sh_frames []); reflexivity|intros b []]. Qed.

(* a counting source slot justifies the increment *)
Lemma src_justifies : forall s t stk rs o, inv1 K s -> t < length (s_thr s) -> t_stk (thr s t) = stk ->
  read_slot (s_heap s) stk rs = Some (o, true) ->
  match rs with
  | RStk i => i < length stk
  | RMem q j => j < length (o_mem (get_obj (s_heap s) q)) /\ exists i, nth i stk None = Some (q, true)
  end ->
  src_ok s stk o (Some rs) /\ touch_c s t o /\ is_live (hobj s o) = true.
Proof.
  intros s t stk rs o I Ht Es Hr Hv. destruct rs as [i|q j]; cbn in Hr, Hv |- *.
  - split; auto. rewrite <- Es in Hr. destruct (held_live K s t i o I Ht Hr). split; auto. left. eauto.
  - destruct Hv as (Hj & Hi). split; [split; auto|]. destruct (member_live K s q j o I Hr). split; auto.
    right; left. exists q, j. exact Hr.
Qed.

Definition just (s : state) (t : nat) (stk : list ref) (o : nat) (rs : rloc) : Prop :=
  src_ok s stk o (Some rs) /\ touch_c s t o /\ is_live (hobj s o) = true.

Lemma ok_inc : forall s t stk l o rs mid, wloc_ok (s_heap s) stk l -> not_self l (Some o) -> just s t stk o rs ->
  mid = [] \/ mid = [ATake l] -> acts_ok s t stk (AInc o (Some rs) :: mid ++ [AStore l (Some (o, true))]).
Proof.
  intros s t stk l o rs mid W NS (J1 & J2 & J3) Hmid.
  assert (Hsum : forall z, sumf (act_unit z) (mid ++ [AStore l (Some (o, true))]) = eq1 o z /\
                           sumf (act_debt z) (mid ++ [AStore l (Some (o, true))]) = 0 /\
                           sumf (rel_count z) (mid ++ [AStore l (Some (o, true))]) = 0)
    by (intros z; destruct Hmid as [-> | ->]; cbn; auto).
  constructor; cbn [sumf act_unit act_debt rel_count].
  - destruct Hmid as [-> | ->]; [apply sh_inc1|apply sh_inc2].
  - intros b [<-|Hb]; [exact J1|]. apply in_app_or in Hb. destruct Hb as [Hb|[<-|[]]]; [|split; auto].
    destruct Hmid as [-> | ->]; [destruct Hb|destruct Hb as [<-|[]]; exact W].
  - intros o' [H|H]; [discriminate|]. apply in_app_or in H. destruct H as [H|[H|[]]]; [|discriminate].
    destruct Hmid as [-> | ->]; [destruct H|destruct H as [H|[]]; discriminate].
  - intros z. destruct (Hsum z) as (-> & -> & _). lia.
  - intros z. apply Hsum.
  - intros z Hz. destruct (Hsum z) as (_ & Hd & _). rewrite Hd in Hz. unfold eq1 in Hz.
    destruct (o =? z) eqn:Ez; [|lia]. apply Nat.eqb_eq in Ez. subst z. auto.
Qed.

Lemma ok_store : forall s t stk l v pre, wloc_ok (s_heap s) stk l -> not_self l (ptr v) -> counting v = false ->
  pre = [] \/ pre = [ATake l] -> acts_ok s t stk (pre ++ [AStore l v]).
Proof.
  intros s t stk l v pre W NS Hc Hpre. apply ok_plain.
  - destruct Hpre as [-> | ->]; [apply (sh_store [])|apply sh_take2]; reflexivity.
  - assert (Hv : forall z, cref z v = 0) by (intros z; destruct v as [[y [|]]|]; cbn in *; auto; discriminate).
    intros b Hb. apply in_app_or in Hb. destruct Hb as [Hb|[<-|[]]]; [|cbn; auto].
    destruct Hpre as [-> | ->]; [destruct Hb|destruct Hb as [<-|[]]; cbn; auto].
Qed.

Lemma setref_ok : forall s t stk rd q o c rs,
  wloc_ok (s_heap s) stk rd -> not_self rd (Some o) -> (c = true -> just s t stk o rs) ->
  acts_ok s t stk (setref_acts rd q (Some o) c (Some rs)).
Proof.
  intros s t stk rd q o c rs W NS Hc. unfold setref_acts.
  destruct (opt_eqb (ptr q) (Some o)) eqn:Ep.
  - destruct (counting q) eqn:Eq; destruct c; try apply acts_nil.
    + apply ok_plain; [apply sh_single; exact Logic.I|]. intros b [<-|[]]. cbn. auto.
    + apply (ok_inc s t stk rd o rs []); auto.
  - unfold take_acts. destruct c.
    + apply ok_inc; auto. destruct q as [[y [|]]|]; auto.
    + apply ok_store; auto. destruct q as [[y [|]]|]; auto.
Qed.

Lemma reset_ok : forall s t stk rd q, wloc_ok (s_heap s) stk rd -> acts_ok s t stk (reset_acts rd q).
Proof.
  intros s t stk rd q W. unfold reset_acts. destruct q as [[y [|]]|]; try apply acts_nil.
  - apply ok_plain; [apply sh_take1|]. intros b [<-|[]]. cbn. auto.
  - apply (ok_store s t stk rd None []); auto. destruct rd; cbn; auto. discriminate.
Qed.

Lemma cast_ok : forall s t stk rd o c rs,
  wloc_ok (s_heap s) stk rd -> not_self rd (Some o) -> (c = true -> just s t stk o rs) ->
  acts_ok s t stk ((if c then [AInc o (Some rs)] else []) ++ [AStore rd (Some (o, c))]).
Proof.
  intros s t stk rd o c rs W NS Hc. destruct c; cbn [app].
  - apply (ok_inc s t stk rd o rs []); auto.
  - apply (ok_store s t stk rd (Some (o, false)) []); auto.
Qed.

End Release.
