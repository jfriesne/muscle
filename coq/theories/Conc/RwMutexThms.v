(* C18 -- property-level statements about the ReaderWriterMutex LTS, derived from the inductive invariant
   (RwMutexInv.inv_reachable) or directly from the transition function. *)
From Coq Require Import List Arith Bool Lia.
Import ListNotations.
From Muscle Require Import Conc.RwMutexModel Conc.RwMutexProofs Conc.RwMutexInv.

Section P.
Variable pref : bool.

(* ---- exclusion ---- *)

(* table level: an executing thread with write recursion is the only executing thread *)
Lemma exclusion_table : forall s, reachable pref s ->
  forall t e t' e', In (t, e) (g_exec (s_g s)) -> 0 < e_rw e -> In (t', e') (g_exec (s_g s)) -> t' = t /\ e' = e.
Proof.
  intros s Hr t e t' e' Hin Hw Hin'. destruct (inv_reachable pref s Hr) as [[[_ Hz]|(t0 & e0 & Hx & _ & _)] _].
  - apply Hz in Hin. lia.
  - rewrite Hx in Hin, Hin'. destruct Hin as [Hin|[]]. destruct Hin' as [Hin'|[]]. inversion Hin; inversion Hin'; subst. auto.
Qed.

(* thread level *)
Lemma exclusion_threads : forall s, reachable pref s ->
  forall t t' e, find t (g_exec (s_g s)) = Some e -> 0 < e_rw e -> t' <> t -> find t' (g_exec (s_g s)) = None.
Proof.
  intros s Hr t t' e Hf Hw Hne. destruct (inv_reachable pref s Hr) as [[Hrm|Hwm] _].
  - pose proof (read_find _ _ _ Hrm Hf). lia.
  - destruct (write_find _ _ _ Hwm Hf) as (Hx & _ & _). rewrite Hx. cbn [find].
    destruct (Nat.eqb t t') eqn:E; auto. apply Nat.eqb_eq in E. congruence.
Qed.

(* user level: what the calls that have returned entitle the threads to.  A thread whose completed calls hold the lock for
   writing excludes every other thread, except one that is inside an upgrading LockReadWrite call (which has given its read
   locks up for the duration of the call, as documented). *)
Lemma exclusion_user : forall s, reachable pref s ->
  forall t t', t' <> t -> 0 < l_hrw (s_l s t) ->
  (l_hro (s_l s t') = 0 /\ l_hrw (s_l s t') = 0) \/ l_stk (s_l s t') <> [].
Proof.
  intros s Hr t t' Hne Hw. destruct (inv_reachable pref s Hr) as [Hm Hl].
  destruct (Hl t) as [Hwf Hex _ _]. destruct (Hl t') as [Hwf' Hex' _ _].
  destruct (l_stk (s_l s t')) eqn:Hs'; [left|right; discriminate].
  pose proof (writer_top _ Hwf Hw) as Hst.
  unfold exp_ent, hold in Hex, Hex'. rewrite Hst in Hex. rewrite Hs' in Hex'. cbn [fst snd] in Hex, Hex'.
  rewrite mk_ent_pos in Hex by lia.
  pose proof (exclusion_threads s Hr t t' _ Hex) as Hx. cbn [e_rw] in Hx. specialize (Hx Hw Hne).
  rewrite Hx in Hex'. symmetry in Hex'. apply mk_ent_none in Hex'. exact Hex'.
Qed.

(* ---- counts: each release undoes exactly one acquire; failed calls change nothing ---- *)

(* outside any call the table holds exactly what the thread's completed calls entitle it to, and it is not queued *)
Lemma counts_idle : forall s, reachable pref s -> forall t, l_act (s_l s t) = AIdle ->
  find t (g_exec (s_g s)) = mk_ent (l_hro (s_l s t)) (l_hrw (s_l s t)) /\
  memk t (g_wr (s_g s)) = false /\ memk t (g_ww (s_g s)) = false.
Proof.
  intros s Hr t Ha. destruct (inv_reachable pref s Hr) as [_ Hl]. destruct (Hl t) as [Hwf Hex Hwr Hww].
  unfold inwr in Hwr. unfold inww in Hww. rewrite Ha in Hwr, Hww. split; [|auto].
  unfold exp_ent, hold in Hex. rewrite (idle_top _ Hwf Ha) in Hex. exact Hex.
Qed.

(* an unlock without a matching lock fails with B_LOCK_FAILED and changes nothing; otherwise it succeeds *)
Lemma unlock_ro_status : forall s, reachable pref s -> forall t g' l' o,
  l_act (s_l s t) = AEnterUnRO -> l_stk (s_l s t) = [] ->
  step pref t CRun (s_g s) (s_l s t) = Some (g', l', o) ->
  (l_hro (s_l s t) = 0 -> o_ret o = Some SLockFailed /\ g' = s_g s) /\
  (0 < l_hro (s_l s t) -> o_ret o = Some SOk /\ l_hro l' = pred (l_hro (s_l s t)) /\ l_hrw l' = l_hrw (s_l s t)).
Proof.
  intros s Hr t g' l' o Ha Hs H. destruct (inv_reachable pref s Hr) as [_ Hl]. destruct (Hl t) as [Hwf Hex _ _].
  unfold exp_ent, hold in Hex. unfold wf in Hwf. rewrite Hs in Hex, Hwf. rewrite Ha in Hwf. cbn [fst snd] in Hex.
  unfold step, run_cs in H. rewrite Ha in H. cbn [cs] in H. unfold unlock_ro in H. rewrite Hex in H.
  unfold complete in H. rewrite Hs, Hwf in H. cbn [finish ghost_ro ghost_rw] in H.
  destruct (l_hro (s_l s t)) as [|a] eqn:Hro.
  - split; [intros _|lia]. destruct (l_hrw (s_l s t)); cbn [mk_ent e_ro] in H; inversion H; subst; auto.
  - split; [lia|intros _]. cbn [mk_ent e_ro e_rw] in H.
    destruct (Nat.eqb a 0 && Nat.eqb (l_hrw (s_l s t)) 0).
    + destruct (maybe_notify pref (set_exec (s_g s) (remove t (g_exec (s_g s))))). inversion H; subst; auto.
    + inversion H; subst; auto.
Qed.

Lemma unlock_rw_status : forall s, reachable pref s -> forall t g' l' o,
  l_act (s_l s t) = AEnterUnRW -> l_stk (s_l s t) = [] ->
  step pref t CRun (s_g s) (s_l s t) = Some (g', l', o) ->
  (l_hrw (s_l s t) = 0 -> o_ret o = Some SLockFailed /\ g' = s_g s) /\
  (0 < l_hrw (s_l s t) -> o_ret o = Some SOk /\ l_hrw l' = pred (l_hrw (s_l s t)) /\ l_hro l' = l_hro (s_l s t)).
Proof.
  intros s Hr t g' l' o Ha Hs H. destruct (inv_reachable pref s Hr) as [_ Hl]. destruct (Hl t) as [Hwf Hex _ _].
  unfold exp_ent, hold in Hex. unfold wf in Hwf. rewrite Hs in Hex, Hwf. rewrite Ha in Hwf. cbn [fst snd] in Hex.
  unfold step, run_cs in H. rewrite Ha in H. cbn [cs] in H. unfold unlock_rw in H. rewrite Hex in H.
  unfold complete in H. rewrite Hs, Hwf in H. cbn [finish ghost_ro ghost_rw] in H.
  destruct (l_hrw (s_l s t)) as [|b] eqn:Hrw.
  - split; [intros _|lia]. destruct (l_hro (s_l s t)); cbn [mk_ent e_rw] in H; inversion H; subst; auto.
  - split; [lia|intros _]. rewrite mk_ent_S_r in H. cbn [e_ro e_rw] in H.
    match type of H with context [if Nat.eqb (pred (g_total (s_g s))) 0 then ?a else ?b] =>
      destruct (if Nat.eqb (pred (g_total (s_g s))) 0 then a else b) end.
    inversion H; subst; auto.
Qed.

(* ---- try acquisitions: one transition, never parked, nothing changed on failure ---- *)

Lemma try_ro_one_step : forall t g l, l_act l = AEnterRO Try -> l_stk l = [] ->
  exists g' l' o, step pref t CRun g l = Some (g', l', o) /\
    (o_ret o = Some SOk \/ (o_ret o = Some STimedOut /\ g' = g)) /\ o_park o = None /\ l_act l' = AIdle.
Proof.
  intros t g l Ha Hs. unfold step, run_cs. rewrite Ha. cbn [cs]. unfold enter_ro, complete. rewrite Hs. cbn [finish].
  destruct (find t (g_exec g)); [|destruct (ok_readers pref g)]; do 3 eexists; (split; [reflexivity|]); cbn; auto.
Qed.

Lemma try_rw_one_step : forall t g l, l_act l = AEnterRW Try -> l_stk l = [] ->
  exists g' l' o, step pref t CRun g l = Some (g', l', o) /\
    (o_ret o = Some SOk \/ (o_ret o = Some STimedOut /\ g' = g)) /\ o_park o = None /\ l_act l' = AIdle.
Proof.
  intros t g l Ha Hs. unfold step, run_cs. rewrite Ha. cbn [cs]. unfold enter_rw, complete. rewrite Hs. cbn [finish].
  destruct (find t (g_exec g)) as [e|].
  - destruct (Nat.ltb 0 (e_rw e) || Nat.eqb (length (g_exec g)) 1); do 3 eexists; (split; [reflexivity|]); cbn; auto.
  - destruct (ok_writer t g); do 3 eexists; (split; [reflexivity|]); cbn; auto.
Qed.

(* a timed waiter can time out at any moment it is parked, and the critical section that follows returns B_TIMED_OUT *)
Lemma timeout_always_enabled : forall t g l, (l_act l = AParkRO Timed \/ l_act l = AParkRW Timed) ->
  exists l', step pref t CTimeout g l = Some (g, l', wake_out false) /\
             (l_act l' = AWokeRO Timed false \/ l_act l' = AWokeRW Timed false) /\ l_stk l' = l_stk l.
Proof.
  intros t g l [Ha|Ha]; unfold step; rewrite Ha; eexists; (split; [reflexivity|]); cbn; auto.
Qed.

Lemma timed_out_returns : forall t g l d, (l_act l = AWokeRO d false \/ l_act l = AWokeRW d false) -> l_stk l = [] ->
  exists g' l' o, step pref t CRun g l = Some (g', l', o) /\ o_ret o = Some STimedOut /\ l_act l' = AIdle /\
                  l_hro l' = l_hro l /\ l_hrw l' = l_hrw l.
Proof.
  intros t g l d [Ha|Ha] Hs; unfold step, run_cs; rewrite Ha; cbn [cs]; unfold woke_ro, woke_rw, complete; cbn [negb]; rewrite Hs.
  - destruct (maybe_notify pref (leave_wr t g)). cbn [finish]. do 3 eexists. split; [reflexivity|]. cbn.
    destruct (l_op l) as [[| | |]|]; auto.
  - destruct (maybe_notify pref (leave_ww t g)). cbn [finish]. do 3 eexists. split; [reflexivity|]. cbn.
    destruct (l_op l) as [[| | |]|]; auto.
Qed.

(* ---- readers share ---- *)

Lemma readers_share : forall t d g l, l_act l = AEnterRO d -> l_stk l = [] ->
  g_total g = 0 -> (pref = false \/ g_ww g = []) ->
  exists g' l' o, step pref t CRun g l = Some (g', l', o) /\ o_ret o = Some SOk /\ o_park o = None /\
                  (forall k, k <> t -> find k (g_exec g') = find k (g_exec g)) /\
                  exists e, find t (g_exec g') = Some e /\ 0 < e_ro e.
Proof.
  intros t d g l Ha Hs Ht Hp. unfold step, run_cs. rewrite Ha. cbn [cs]. unfold enter_ro, complete. rewrite Hs. cbn [finish].
  assert (Hok : ok_readers pref g = true).
  { unfold ok_readers. rewrite Ht. cbn. destruct Hp as [->| ->]; auto. destruct pref; auto. }
  destruct (find t (g_exec g)) as [e|] eqn:Hf; [|rewrite Hok]; do 3 eexists; (split; [reflexivity|]); cbn [o_ret o_park set_exec g_exec];
    (split; [reflexivity|]); (split; [reflexivity|]); (split; [intros k Hk; apply find_setv_other; auto|]);
    eexists; (split; [apply find_setv_same|]); cbn; lia.
Qed.

End P.

(* ---- executions: running a list of labels from a state (used for the non-vacuity examples and the refutations) ---- *)
Fixpoint run (pref : bool) (labs : list label) (s : sys) : option sys :=
  match labs with
  | [] => Some s
  | a :: r => match sys_step pref s a with Some (s', _) => run pref r s' | None => None end
  end.

Lemma run_reachable : forall pref labs s s', reachable pref s -> run pref labs s = Some s' -> reachable pref s'.
Proof.
  induction labs as [|a r IH]; cbn [run]; intros s s' Hr H.
  - inversion H; subst; auto.
  - destruct (sys_step pref s a) as [[s1 o]|] eqn:E; [|discriminate]. eapply IH; [|eauto]. eapply reach_step; eauto.
Qed.

Lemma run_witness : forall pref labs s (P : sys -> Prop),
  run pref labs sys0 = Some s -> P s -> exists s, reachable pref s /\ P s.
Proof. intros pref labs s P E H. exists s. split; [eapply run_reachable; [apply reach_init | exact E] | exact H]. Qed.

Definition B (t : tid) (o : op) : label := LBegin t o.
Definition R (t : tid) : label := LStep t CRun.
Definition T (t : tid) : label := LStep t CTimeout.

(* (known finding F22) a TIMED LockReadWrite() that has to upgrade can end up parked in a wait that has no timeout:
   thread 0 and 1 read; 0 asks for a timed upgrade, gives its read lock up, times out behind 1; 1 upgrades (it is now the
   only reader); 0 re-takes its read lock with LockReadOnly() -- untimed -- and parks behind writer 1: no timeout transition
   is enabled for it, although the call in flight is LockReadWrite(deadline). *)
Definition f22_trace : list label :=
  [B 0 (OLockRO Never); R 0; B 1 (OLockRO Never); R 1;
   B 0 (OLockRW Timed); R 0; R 0; R 0; T 0; R 0;
   B 1 (OLockRW Never); R 1; R 0].

Lemma timed_upgrade_deadline_refuted : forall pref,
  exists s, reachable pref s /\ l_op (s_l s 0) = Some (OLockRW Timed) /\ l_act (s_l s 0) = AParkRO Never /\
            step pref 0 CTimeout (s_g s) (s_l s 0) = None /\ step pref 0 CRun (s_g s) (s_l s 0) = None.
Proof.
  intros pref. destruct pref; (eapply run_witness with (labs := f22_trace); [vm_compute; reflexivity|]); vm_compute; auto.
Qed.
