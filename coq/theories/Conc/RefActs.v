(* C10 -- preservation of [inv1] by each kind of atomic action.  Two frames built on RefExcl.frame do the work:
   [point_core] (thread t changes the count / life-cycle state of one object it may touch, member slots stay)
   and [slots_core] (thread t rearranges its stack, its pending work and member slots it may write, every other
   field stays).  This file: increment, the slot writes (unreference, store, stop-counting), the decrements. *)
From Coq Require Import List Arith Bool Lia.
From Muscle Require Import Conc.Pool Conc.PoolProofs Conc.RefCnt Conc.RefInv Conc.RefExcl.
Import ListNotations.
Local Open Scope nat_scope.

Definition bad124 (e : event) : bool :=
  match e with EvBad w => (w =? 1) || (w =? 2) || (w =? 4) | _ => false end.

Section Acts.
Variables N K : nat.

(* facts about the acting thread, shared by all cases *)
Record ctx (s : state) (t : nat) (stk : list ref) (a : act) (rest : list act) (prog : list op) : Prop := mkCtx {
  c_inv : inv1 K s;
  c_t : t < length (s_thr s);
  c_thr : thr s t = mkThr stk (a :: rest) prog
}.

Lemma ctx_shape : forall {s t stk a rest prog}, ctx s t stk a rest prog -> shape (a :: rest).
Proof. intros s t stk a rest prog [I Ht E]. pose proof (i_shape K s I t Ht). rewrite E in H. exact H. Qed.

Lemma ctx_act : forall {s t stk a rest prog} b, ctx s t stk a rest prog -> In b (a :: rest) -> act_ok s stk b.
Proof. intros s t stk a rest prog b [I Ht E] Hin. pose proof (i_acts K s I t b Ht). rewrite E in H. apply H; auto. Qed.

(* the object record after a count change only *)
Lemma set_cnt_fields : forall ob c, o_mem (set_cnt ob c) = o_mem ob /\ o_st (set_cnt ob c) = o_st ob /\
  o_pooled (set_cnt ob c) = o_pooled ob /\ o_births (set_cnt ob c) = o_births ob /\ o_deaths (set_cnt ob c) = o_deaths ob /\
  o_cnt (set_cnt ob c) = c /\ o_val (set_cnt ob c) = o_val ob.
Proof. intros; cbn; auto 10. Qed.

Lemma hobj_wt : forall s t th' h' p' z, hobj (with_thr s t th' h' p') z = get_obj h' z.
Proof. reflexivity. Qed.

Lemma rc_cons : forall o a rest, sumf (rel_count o) (a :: rest) = rel_count o a + sumf (rel_count o) rest.
Proof. reflexivity. Qed.

Lemma eq1_refl : forall o, eq1 o o = 1.
Proof. intros; unfold eq1; rewrite Nat.eqb_refl; reflexivity. Qed.

Lemma eq1_ne : forall q o, q <> o -> eq1 q o = 0.
Proof. intros q o H; unfold eq1. apply Nat.eqb_neq in H. rewrite H. reflexivity. Qed.

(* ---- what may follow the first pending action ---- *)

(* a cascade: release frames and pending decrements, possibly closed by the store of the SetRef that started it *)
Definition cascade (rest : list act) : Prop :=
  forallb is_frame rest = true \/ exists fr l v, rest = fr ++ [AStore l v] /\ forallb is_frame fr = true.

Definition rest_ok (a : act) (rest : list act) : Prop :=
  match a with
  | AInc o _ => exists l, rest = [AStore l (Some (o, true))] \/ rest = [ATake l; AStore l (Some (o, true))]
  | ATake l => rest = [] \/ exists v, rest = [AStore l v]
  | AStore _ _ | AUntag _ | APoolObt _ | ADrain => rest = []
  | ADec _ | ADecKeep _ | ARel _ _ | ASlabDel _ => cascade rest
  end.

Lemma shape_cons : forall {a rest}, shape (a :: rest) -> rest_ok a rest.
Proof.
  intros a rest H. inversion H as [fr Hf Ef|fr l v Hf Ef|q sr l Ef|q sr l Ef|l Ef|l v Ef|x Hx Ef]; subst; cbn; eauto.
  - cbn in Hf. apply andb_true_iff in Hf. destruct Hf as (Ha & Hf). destruct a; try discriminate; left; exact Hf.
  - destruct fr as [|f fr]; cbn in Ef; injection Ef as Ea Er; subst a rest; [reflexivity|].
    cbn in Hf. apply andb_true_iff in Hf. destruct Hf as (Ha & Hf). destruct f; try discriminate; right; eauto.
  - destruct a; cbn in Hx; try tauto; reflexivity.
Qed.

Lemma cascade_debt : forall rest z, cascade rest -> sumf (act_debt z) rest = 0.
Proof.
  intros rest z [Hf|(fr & l & v & -> & Hf)]; [|rewrite sumf_app]; rewrite (frames_no_debt z _ Hf); reflexivity.
Qed.

Lemma cascade_shape : forall rest pre, cascade rest -> forallb is_frame pre = true -> shape (pre ++ rest).
Proof.
  intros rest pre [Hf|(fr & l & v & -> & Hf)] Hp; [apply sh_frames|rewrite app_assoc; apply sh_store];
    rewrite forallb_app, Hp, Hf; reflexivity.
Qed.

Lemma cascade_kinds : forall rest b, cascade rest -> In b rest -> is_frame b = true \/ exists l v, b = AStore l v.
Proof.
  intros rest b [Hf|(fr & l & v & -> & Hf)] Hin.
  - left. rewrite forallb_forall in Hf. auto.
  - apply in_app_or in Hin. destruct Hin as [Hin|[<-|[]]]; [left; rewrite forallb_forall in Hf; auto|right; eauto].
Qed.

Lemma rest_kinds : forall a rest, shape (a :: rest) ->
  forall b, In b rest -> is_frame b = true \/ (exists l v, b = AStore l v) \/ (exists l, b = ATake l).
Proof.
  intros a rest H b Hin. apply shape_cons in H.
  assert (C : cascade rest -> is_frame b = true \/ (exists l v, b = AStore l v) \/ (exists l, b = ATake l))
    by (intros C; destruct (cascade_kinds _ _ C Hin); auto).
  destruct a; cbn in H; auto; try (subst rest; destruct Hin).
  - destruct H as (l & [-> | ->]); [destruct Hin as [<-|[]]|destruct Hin as [<-|[<-|[]]]]; eauto.
  - destruct H as [->|(v & ->)]; [destruct Hin|destruct Hin as [<-|[]]]; eauto.
Qed.

Lemma two_rels : forall s t o n m rest, inv1 K s -> t < length (s_thr s) ->
  t_todo (thr s t) = ARel o n :: rest -> In (ARel o m) rest -> False.
Proof.
  intros s t o n m rest I Ht E Hin. pose proof (i_rels K s I o) as HR. unfold rels in HR.
  pose proof (sumf_nth_le _ (fun t => sumf (rel_count o) (t_todo t)) (s_thr s) t dthr Ht) as Hle. cbn beta in Hle.
  unfold thr in E. rewrite E in Hle. rewrite rc_cons in Hle. pose proof (in_todo_rel o _ _ Hin) as A.
  cbn in A, Hle. unfold eq1 in A, Hle. rewrite Nat.eqb_refl in A, Hle. destruct (is_releasing (hobj s o)); lia.
Qed.

(* ---- one object changes, its member slots stay ---- *)

Definition wloc_of (a : act) : option rloc :=
  match a with ATake l | AUntag l | APoolObt l | AStore l _ => Some l | _ => None end.

Lemma act_wloc : forall s stk b l, act_ok s stk b -> wloc_of b = Some l -> wloc_ok (s_heap s) stk l.
Proof. intros s stk b l A H. destruct b; inversion H; subst; cbn in A; tauto. Qed.

(* an action other than a first increment stays justified under such a change if the change keeps the count of
   the object it writes into and the state of the object it releases *)
Lemma point_kept : forall s s' stk o ob' b, act_ok s stk b ->
  s_heap s' = upd (s_heap s) o ob' -> o < length (s_heap s) -> o_mem ob' = o_mem (hobj s o) ->
  (forall y j, wloc_of b = Some (RMem y j) -> y <> o \/ o_cnt ob' = o_cnt (hobj s o)) ->
  (forall n, b = ARel o n -> o_st ob' = o_st (hobj s o) /\ o_pooled ob' = o_pooled (hobj s o)) ->
  (forall y, b <> AInc y None) ->
  act_ok s' stk b.
Proof.
  intros s s' stk o ob' b A Eh Ho Em Hw Hr Hn.
  assert (G : forall z, hobj s' z = if z =? o then ob' else hobj s z) by (intros; unfold hobj; rewrite Eh; apply get_upd; auto).
  assert (L : forall l, wloc_of b = Some l -> wloc_ok (s_heap s) stk l -> wloc_ok (s_heap s') stk l).
  { intros [i|y j] El W; cbn in *; auto. change (get_obj (s_heap s') y) with (hobj s' y). rewrite G.
    destruct (Nat.eqb_spec y o) as [->|]; auto. destruct (Hw _ _ El) as [|E]; [tauto|]. rewrite E, Em. auto. }
  destruct b; cbn in *; auto.
  - destruct src as [[i|q j]|]; cbn in *; auto; [|destruct (Hn o0 eq_refl)].
    rewrite G. destruct (Nat.eqb_spec q o) as [->|]; auto. rewrite Em. auto.
  - destruct A; auto.
  - rewrite G. destruct (Nat.eqb_spec o0 o) as [->|]; auto. destruct (Hr n eq_refl) as (E1 & E2).
    unfold is_releasing, processed_none, rel_index in *. rewrite E1, E2, Em. auto.
Qed.

(* elsewhere than at o the sums over todo and todo' agree; at o: the count equation, what is left when o stops being
   live, the release bookkeeping, the ghost counters *)
Lemma point_core : forall s t stk todo prog todo' prog' o ob' p',
  inv1 K s -> t < length (s_thr s) -> thr s t = mkThr stk todo prog -> o < length (s_heap s) ->
  o_mem ob' = o_mem (hobj s o) -> quiet ob' -> touch_c s t o ->
  (forall z, z <> o -> sumf (act_unit z) todo' = sumf (act_unit z) todo /\
                       sumf (act_debt z) todo' = sumf (act_debt z) todo /\
                       sumf (rel_count z) todo' = sumf (rel_count z) todo) ->
  sumf (act_unit o) todo' + o_cnt (hobj s o) + sumf (act_debt o) todo
    = sumf (act_unit o) todo + o_cnt ob' + sumf (act_debt o) todo' ->
  (is_live ob' = false -> units o s + sumf (act_unit o) todo' = sumf (act_unit o) todo) ->
  sumf (rel_count o) todo' + (if is_releasing (hobj s o) then 1 else 0)
    = sumf (rel_count o) todo + (if is_releasing ob' then 1 else 0) ->
  o_births ob' = o_deaths ob' + (if is_live ob' then 1 else 0) ->
  shape todo' ->
  (forall b, In b todo' -> act_ok (with_thr s t (mkThr stk todo' prog') (upd (s_heap s) o ob') p') stk b) ->
  inv1 K (with_thr s t (mkThr stk todo' prog') (upd (s_heap s) o ob') p').
Proof.
  intros s t stk todo prog todo' prog' o ob' p' I Ht E Ho Em Hq Htc Hoth Hcnt Hnl Hrel Hgh Hsh Hown.
  apply frame; auto; try rewrite E; unfold thr_units, thr_debts; cbn [t_stk t_todo]; try apply upd_length.
  - intros z. rewrite heap_units_keep, get_upd by auto. unfold hobj in *. destruct (Nat.eqb_spec z o) as [->|Hne]; [lia|].
    destruct (Hoth z Hne) as (A & B & _). lia.
  - intros z. rewrite heap_units_keep, get_upd by auto. destruct (Nat.eqb_spec z o) as [->|Hne]; intros Hz.
    + specialize (Hnl Hz). lia.
    + destruct (Hoth z Hne) as (A & _). pose proof (i_nolive K s I z Hz). lia.
  - intros z Hz. rewrite get_upd by auto. destruct (Nat.eqb_spec z o) as [->|Hne]; [rewrite Em; auto|].
    split; auto. apply (i_mem K s I z Hz).
  - intros z. rewrite get_upd by auto. destruct (Nat.eqb_spec z o) as [->|Hne]; auto.
  - intros y. right. rewrite get_upd by auto. destruct (Nat.eqb_spec y o) as [->|Hne]; auto.
  - intros z. destruct (Nat.eq_dec z o) as [->|Hne]; auto. right. apply (Hoth z Hne).
  - intros z. rewrite get_upd by auto. destruct (Nat.eqb_spec z o) as [->|Hne]; auto.
    destruct (Hoth z Hne) as (_ & _ & C). rewrite C. reflexivity.
  - intros z Hz. rewrite get_upd by auto. destruct (Nat.eqb_spec z o) as [->|Hne]; auto. apply (i_ghost K s I z Hz).
Qed.

(* ---- slots change, all other fields stay ---- *)

(* thread t rearranges its stack, its pending work and member slots of objects it may write; d z new references
   to z are promised (credit and debt together) *)
Lemma slots_core : forall s t stk todo prog stk' todo' prog' h' p' (d : nat -> nat),
  inv1 K s -> t < length (s_thr s) -> thr s t = mkThr stk todo prog ->
  length h' = length (s_heap s) ->
  (forall z, o_cnt (get_obj h' z) = o_cnt (hobj s z) /\ o_st (get_obj h' z) = o_st (hobj s z) /\
             o_pooled (get_obj h' z) = o_pooled (hobj s z) /\ o_births (get_obj h' z) = o_births (hobj s z) /\
             o_deaths (get_obj h' z) = o_deaths (hobj s z) /\ length (o_mem (get_obj h' z)) = length (o_mem (hobj s z))) ->
  (forall z, (touch_m s t z /\ (is_live (hobj s z) = true \/ is_releasing (hobj s z) = true)) \/
             o_mem (get_obj h' z) = o_mem (hobj s z)) ->
  (forall z, refs_in z stk' + sumf (act_unit z) todo' + sumf (obj_units z) h'
             = refs_in z stk + sumf (act_unit z) todo + sumf (obj_units z) (s_heap s) + d z) ->
  (forall z, sumf (act_debt z) todo' = sumf (act_debt z) todo + d z) ->
  (forall z, 0 < d z -> touch_c s t z /\ is_live (hobj s z) = true) ->
  (forall z, sumf (rel_count z) todo' = sumf (rel_count z) todo) ->
  shape todo' ->
  (forall b, In b todo' -> act_ok (with_thr s t (mkThr stk' todo' prog') h' p') stk' b) ->
  inv1 K (with_thr s t (mkThr stk' todo' prog') h' p').
Proof.
  intros s t stk todo prog stk' todo' prog' h' p' d I Ht E Hlen Hfld Hmem Bu Bd Hd Br Hsh Hown.
  assert (Hst : forall z, is_live (get_obj h' z) = is_live (hobj s z) /\ is_releasing (get_obj h' z) = is_releasing (hobj s z)).
  { intros z. unfold is_live, is_releasing. destruct (Hfld z) as (_ & -> & _). auto. }
  apply frame; auto; try rewrite E; unfold thr_units, thr_debts; cbn [t_stk t_todo].
  - intros z. destruct (Hfld z) as (-> & _). specialize (Bu z). specialize (Bd z). lia.
  - intros z Hz. destruct (Hst z) as (El & _). rewrite El in Hz. pose proof (i_nolive K s I z Hz). specialize (Bu z).
    destruct (d z) eqn:Ed; [lia|]. destruct (Hd z) as (_ & Hl); [lia|congruence].
  - intros z Hz. destruct (Hfld z) as (_ & Es & _ & _ & _ & El). split; auto. unfold quiet. rewrite Es.
    destruct (Hmem z) as [(_ & Hl)|Em]; [|rewrite Em; apply (i_mem K s I z Hz)].
    unfold is_live, is_releasing in Hl. destruct (o_st (hobj s z)); auto; destruct Hl; discriminate.
  - intros z. right. destruct (Hfld z) as (-> & -> & -> & _). auto.
  - intros y. destruct (Hmem y) as [(Hy & _)|Em]; auto.
  - intros z. destruct (d z) eqn:Ed; [right; rewrite Bd; lia|left; apply Hd; lia].
  - intros z. destruct (Hst z) as (_ & ->). rewrite Br. reflexivity.
  - intros z Hz. destruct (Hst z) as (-> & _). destruct (Hfld z) as (_ & _ & _ & -> & -> & _). apply (i_ghost K s I z Hz).
Qed.

Lemma heap_same_ok : forall s s' stk b, s_heap s' = s_heap s ->
  (forall o, b = AInc o None -> units o s' = units o s) -> act_ok s stk b -> act_ok s' stk b.
Proof.
  intros s s' stk b Eh Hu W. destruct b; cbn in *; unfold hobj in *; rewrite ?Eh; auto.
  destruct src as [[i|q j]|]; cbn in *; unfold hobj in *; rewrite ?Eh; auto. rewrite (Hu o eq_refl). auto.
Qed.

(* the first pending action goes, leaving no trace: it held no credit and the rest does not depend on it *)
Lemma pop_core : forall s t stk a rest prog p', ctx s t stk a rest prog ->
  (forall z, act_unit z a = 0 /\ act_debt z a = 0 /\ rel_count z a = 0) -> shape rest ->
  inv1 K (with_thr s t (mkThr stk rest prog) (s_heap s) p').
Proof.
  intros s t stk a rest prog p' C Ha Hsh. pose proof C as [I Ht E].
  apply (slots_core s t stk (a :: rest) prog stk rest prog (s_heap s) p' (fun _ => 0)); auto 10; cbn [sumf].
  - intros z. destruct (Ha z) as (-> & _). lia.
  - intros z. destruct (Ha z) as (_ & -> & _). lia.
  - intros z Hz. lia.
  - intros z. destruct (Ha z) as (_ & _ & ->). lia.
  - intros b Hin. apply (heap_same_ok s _ stk b); [reflexivity| |apply (ctx_act b C); right; exact Hin].
    intros o ->. exfalso. destruct (rest_kinds a rest (ctx_shape C) _ Hin) as [Hf|[(l' & v' & Hb)|(l' & Hb)]]; discriminate.
Qed.

(* ---- one slot write ---- *)

Definition loc_valid (h : list obj) (stk : list ref) (l : rloc) : Prop :=
  match l with
  | RStk i => i < length stk
  | RMem q j => q < length h /\ j < length (o_mem (get_obj h q))
  end.

Definition mem_of (l : rloc) (z : nat) : bool := match l with RMem q _ => z =? q | RStk _ => false end.

Lemma write_facts : forall {h stk l v h1 stk1}, write_slot h stk l v = (h1, stk1) -> loc_valid h stk l ->
  length h1 = length h /\ length stk1 = length stk /\
  (forall z, o_cnt (get_obj h1 z) = o_cnt (get_obj h z) /\ o_st (get_obj h1 z) = o_st (get_obj h z) /\
             o_pooled (get_obj h1 z) = o_pooled (get_obj h z) /\ o_births (get_obj h1 z) = o_births (get_obj h z) /\
             o_deaths (get_obj h1 z) = o_deaths (get_obj h z) /\ length (o_mem (get_obj h1 z)) = length (o_mem (get_obj h z))) /\
  (forall z, mem_of l z = false -> get_obj h1 z = get_obj h z) /\
  (forall o, refs_in o stk1 + sumf (obj_units o) h1 + cref o (read_slot h stk l) = refs_in o stk + sumf (obj_units o) h + cref o v) /\
  read_slot h1 stk1 l = v /\
  (forall l', rloc_eqb l l' = false -> read_slot h1 stk1 l' = read_slot h stk l').
Proof.
  intros h stk [i|q j] v h1 stk1 Hw Hv; cbn in Hw, Hv; injection Hw as <- <-.
  - split; auto. split; [apply upd_length|]. split; auto 10. split; auto. split.
    + intros o. pose proof (refs_in_upd o stk i v Hv). cbn. lia.
    + split.
      * cbn. apply nth_upd_same; auto.
      * intros [i'|q' j'] Hne; cbn in *; auto. apply Nat.eqb_neq in Hne. apply nth_upd_other; auto.
  - destruct Hv as (Hq & Hj). split; [apply upd_length|]. split; auto.
    assert (Hget : forall z, get_obj (upd h q (set_mem (get_obj h q) (upd (o_mem (get_obj h q)) j v))) z =
                             if z =? q then set_mem (get_obj h q) (upd (o_mem (get_obj h q)) j v) else get_obj h z).
    { intros z. apply get_upd; auto. }
    split; [|split; [|split; [|split]]].
    + intros z. rewrite Hget. destruct (z =? q) eqn:Ez; auto 10. apply Nat.eqb_eq in Ez. subst z. cbn. rewrite upd_length. auto 10.
    + intros z Ez. cbn in Ez. rewrite Hget, Ez. reflexivity.
    + intros o. pose proof (heap_units_upd h q (set_mem (get_obj h q) (upd (o_mem (get_obj h q)) j v)) o Hq) as HH.
      change (obj_units o (set_mem (get_obj h q) (upd (o_mem (get_obj h q)) j v))) with (refs_in o (upd (o_mem (get_obj h q)) j v)) in HH.
      change (obj_units o (get_obj h q)) with (refs_in o (o_mem (get_obj h q))) in HH.
      pose proof (refs_in_upd o (o_mem (get_obj h q)) j v Hj). cbn [read_slot]. lia.
    + cbn [read_slot]. rewrite Hget, Nat.eqb_refl. cbn. apply nth_upd_same; auto.
    + intros [i'|q' j'] Hne; cbn [read_slot]; auto. rewrite Hget. cbn in Hne.
      destruct (q' =? q) eqn:Eq; auto. apply Nat.eqb_eq in Eq. subst q'. rewrite Nat.eqb_refl in Hne. cbn in Hne.
      apply Nat.eqb_neq in Hne. cbn. apply nth_upd_other; auto.
Qed.

Lemma wloc_valid : forall s t stk l, inv1 K s -> t < length (s_thr s) -> t_stk (thr s t) = stk ->
  wloc_ok (s_heap s) stk l -> loc_valid (s_heap s) stk l /\
  (forall z, mem_of l z = true -> touch_m s t z /\ is_live (hobj s z) = true).
Proof.
  intros s t stk [i|q j] I Ht Es W; cbn in W |- *.
  - split; auto. discriminate.
  - destruct W as (W1 & W2 & (i & W3)). rewrite <- Es in W3. destruct (held_live K s t i q I Ht W3) as (Hl & _).
    split; [split; auto; apply live_lt; auto|]. intros z Ez. apply Nat.eqb_eq in Ez. subst z. split; auto. left. split; eauto.
Qed.

Lemma frames_rel_ok_same : forall s s' stk a, is_frame a = true ->
  (forall o n, a = ARel o n -> o_st (hobj s' o) = o_st (hobj s o) /\ o_mem (hobj s' o) = o_mem (hobj s o) /\ o_pooled (hobj s' o) = o_pooled (hobj s o)) ->
  act_ok s stk a -> act_ok s' stk a.
Proof.
  intros s s' stk a Hf H W. destruct a; cbn in Hf; try discriminate; cbn in *; auto.
  destruct (H o n eq_refl) as (H1 & H2 & H3). destruct W as (W1 & W2 & W3).
  unfold is_releasing, processed_none, rel_index in *. rewrite H1, H2, H3. auto.
Qed.

Lemma frame_ok_any_stk : forall s stk stk' a, is_frame a = true -> act_ok s stk a -> act_ok s stk' a.
Proof. intros s stk stk' a Hf W. destruct a; cbn in Hf; try discriminate; cbn in *; auto. Qed.

(* why thread t, whose next action is a, may write slot l *)
Definition wjust (s : state) (stk : list ref) (a : act) (l : rloc) : Prop :=
  match l with
  | RStk i => i < length stk
  | RMem q j => j < length (o_mem (hobj s q)) /\
                ((o_cnt (hobj s q) = 1 /\ exists i, nth i stk None = Some (q, true)) \/ (exists n, a = ARel q n))
  end.

Lemma wloc_wjust : forall s stk a l, wloc_ok (s_heap s) stk l -> wjust s stk a l.
Proof. intros s stk a [i|q j] W; cbn in *; auto. destruct W as (W1 & W2 & W3). split; auto. Qed.

(* thread t overwrites slot l (which it may write) with v; the credits held in its todo list change so that
   the total is conserved.  A stack write may drop the very reference that justifies a pending member write,
   so with a stack slot none may be pending (seventh premise) *)
Lemma write_core : forall s t stk a rest prog l v todo',
  ctx s t stk a rest prog ->
  wjust s stk a l ->
  (forall z, cref z v + sumf (act_unit z) todo' = cref z (read_slot (s_heap s) stk l) + act_unit z a + sumf (act_unit z) rest) ->
  (forall z, sumf (act_debt z) todo' = act_debt z a + sumf (act_debt z) rest) ->
  (forall z, sumf (rel_count z) todo' = rel_count z a + sumf (rel_count z) rest) ->
  shape todo' ->
  (match l with RStk _ => forall b y j, In b rest -> wloc_of b = Some (RMem y j) -> False | RMem _ _ => True end) ->
  forall h1 stk1, write_slot (s_heap s) stk l v = (h1, stk1) ->
  (forall b, In b todo' -> In b rest \/ act_ok (with_thr s t (mkThr stk1 todo' prog) h1 (s_pool s)) stk1 b) ->
  inv1 K (with_thr s t (mkThr stk1 todo' prog) h1 (s_pool s)).
Proof.
  intros s t stk a rest prog l v todo' C W Bu Bd Br Hsh Hsame h1 stk1 Hw Hown.
  pose proof C as [I Ht E].
  assert (Estk : t_stk (thr s t) = stk) by (rewrite E; auto).
  assert (Hv : loc_valid (s_heap s) stk l /\
               forall z, mem_of l z = true -> touch_m s t z /\ (is_live (hobj s z) = true \/ is_releasing (hobj s z) = true) /\
                                             forall m, In (ARel z m) rest -> False).
  { destruct l as [i|q j]; cbn in W |- *; [split; auto; discriminate|]. destruct W as (Wj & [(Wc & (i & Wi))|(n & ->)]).
    - rewrite <- Estk in Wi. destruct (held_live K s t i q I Ht Wi) as (Hlv & _).
      split; [split; auto; apply live_lt; auto|]. intros z Ez. apply Nat.eqb_eq in Ez. subst z.
      split; [left; split; eauto|]. split; auto. intros m Hm.
      pose proof (ctx_act _ C (or_intror Hm)) as (A & _). unfold is_live, is_releasing in *. destruct (o_st (hobj s q)); discriminate.
    - pose proof (ctx_act _ C (or_introl eq_refl)) as (A & _).
      split; [split; auto; apply releasing_lt; auto|]. intros z Ez. apply Nat.eqb_eq in Ez. subst z.
      split; [right; exists n; rewrite E; left; auto|]. split; auto. intros m Hm. eapply (two_rels s t q n m rest); eauto. rewrite E. reflexivity. }
  destruct Hv as (Hv & Hwr).
  destruct (write_facts Hw Hv) as (L1 & S1 & F1 & G1 & B1 & _ & _).
  apply (slots_core s t stk (a :: rest) prog stk1 todo' prog h1 (s_pool s) (fun _ => 0)); auto; cbn [sumf].
  - intros z. destruct (mem_of l z) eqn:Ez; [left; destruct (Hwr z Ez) as (A & B & _); auto|right; apply f_equal, G1; auto].
  - intros z. specialize (Bu z). specialize (B1 z). lia.
  - intros z. rewrite Bd. lia.
  - intros z Hz. lia.
  - (* own pending actions *)
    intros b Hin. destruct (Hown b Hin) as [Hr|Hok]; auto.
    pose proof (ctx_act b C (or_intror Hr)) as A.
    assert (Wl : forall l', wloc_of b = Some l' -> wloc_ok h1 stk1 l').
    { intros l' Hl'. pose proof (act_wloc s stk b l' A Hl') as Wl. destruct l' as [i'|y j']; cbn in Wl |- *; [lia|].
      destruct (F1 y) as (-> & _ & _ & _ & _ & ->). destruct l as [i|q j]; [destruct (Hsame b y j' Hr Hl')|].
      cbn in Hw. injection Hw as _ <-. exact Wl. }
    destruct (rest_kinds a rest (ctx_shape C) b Hr) as [Hf|[(l' & v' & ->)|(l' & ->)]].
    + apply (frames_rel_ok_same s _ stk1 b Hf); [|apply (frame_ok_any_stk s stk stk1 b Hf); auto].
      intros o n ->. rewrite !hobj_wt. destruct (F1 o) as (_ & -> & -> & _). split; auto. split; auto.
      apply f_equal, G1. destruct (mem_of l o) eqn:Eo; auto. destruct (Hwr o Eo) as (_ & _ & Hn). destruct (Hn n Hr).
    + destruct A as (_ & A). split; [apply Wl; reflexivity|exact A].
    + apply Wl. reflexivity.
Qed.

(* ---- AInc ---- *)

Lemma src_live : forall s t stk o src, inv1 K s -> t < length (s_thr s) -> t_stk (thr s t) = stk ->
  src_ok s stk o src -> is_live (hobj s o) = true.
Proof.
  intros s t stk o [[i|q j]|] I Ht Es W; cbn in W.
  - rewrite <- Es in W. destruct (held_live K s t i o I Ht W); auto.
  - destruct W as (W & _). destruct (member_live K s q j o I W); auto.
  - tauto.
Qed.

Lemma src_touch : forall s t stk o src rest prog, ctx s t stk (AInc o src) rest prog -> touch_c s t o.
Proof.
  intros s t stk o src rest prog C. pose proof (ctx_act (AInc o src) C (or_introl eq_refl)) as W.
  destruct C as [I Ht E]. destruct src as [[i|q j]|]; cbn in W.
  - left. exists i. rewrite E. exact W.
  - right; left. destruct W as (W & _). exists q, j. exact W.
  - right; right; right; left. rewrite E. cbn. left; auto.
Qed.

Lemma act_inc : forall s t stk o src rest prog, ctx s t stk (AInc o src) rest prog ->
  forall h' stk' todo' p' ev, do_act N K (s_heap s) (s_pool s) stk (AInc o src) rest = (h', stk', todo', p', ev) ->
  inv1 K (with_thr s t (mkThr stk' todo' prog) h' p') /\ bad124 ev = false.
Proof.
  intros s t stk o src rest prog C h' stk' todo' p' ev Hdo.
  pose proof (shape_cons (ctx_shape C)) as (l & Hrest).
  pose proof (ctx_act (AInc o src) C (or_introl eq_refl)) as Wsrc. cbn in Wsrc.
  pose proof (src_touch _ _ _ _ _ _ _ C) as Htouch.
  pose proof C as [I Ht E].
  assert (Hlive : is_live (hobj s o) = true) by (apply (src_live s t stk o src I Ht); [rewrite E; reflexivity|exact Wsrc]).
  pose proof (live_lt _ _ Hlive) as Hlt.
  cbn in Hdo. unfold inc_obj in Hdo. unfold hobj in Hlive. rewrite Hlive in Hdo. inversion Hdo; subst; clear Hdo.
  split; [|reflexivity].
  apply (point_core s t stk' (AInc o src :: todo') prog todo' prog o); auto.
  - (* quiet *) apply live_quiet. exact Hlive.
  - (* elsewhere *) intros z Hne. cbn. rewrite (eq1_ne o z) by auto. auto.
  - (* count *) cbn. rewrite eq1_refl. unfold hobj. lia.
  - (* not live *) intros Hz. change (is_live (get_obj (s_heap s) o) = false) in Hz. congruence.
  - (* ghost *) apply (i_ghost K s I o Hlt).
  - (* shape *) destruct Hrest as [-> | ->]; [apply (sh_store [] l)|apply sh_take2]; reflexivity.
  - (* the pending store does not go into o itself *)
    intros b Hin.
    assert (Hst : act_ok s stk' (AStore l (Some (o, true)))) by (apply (ctx_act _ C); destruct Hrest as [-> | ->]; cbn; auto).
    destruct Hst as (_ & NS).
    assert (Hb : b = ATake l \/ b = AStore l (Some (o, true)))
      by (destruct Hrest as [-> | ->]; [destruct Hin as [<-|[]]|destruct Hin as [<-|[<-|[]]]]; auto).
    apply (point_kept s _ stk' o (set_cnt (get_obj (s_heap s) o) (S (o_cnt (get_obj (s_heap s) o)))) b (ctx_act b C (or_intror Hin))); auto.
    + intros y j Hl. left. intros ->. destruct Hb as [-> | ->]; injection Hl as ->; apply NS; reflexivity.
    + intros y ->. destruct Hb; discriminate.
Qed.

(* ---- ATake, AStore, AUntag ---- *)

Definition dec_of (old : ref) : list act := match old with Some (q, true) => [ADec q] | _ => [] end.

Lemma dec_of_unit : forall z old, sumf (act_unit z) (dec_of old) = cref z old.
Proof. intros z [[q [|]]|]; cbn; auto. Qed.

Lemma dec_of_debt : forall z old, sumf (act_debt z) (dec_of old) = 0.
Proof. intros z [[q [|]]|]; cbn; auto. Qed.

Lemma dec_of_rel : forall z old, sumf (rel_count z) (dec_of old) = 0.
Proof. intros z [[q [|]]|]; cbn; auto. Qed.

Lemma dec_of_frames : forall old, forallb is_frame (dec_of old) = true.
Proof. intros [[q [|]]|]; cbn; auto. Qed.

Lemma dec_of_ok : forall s stk old b, In b (dec_of old) -> act_ok s stk b.
Proof. intros s stk [[q [|]]|] b H; cbn in H; try tauto. destruct H as [<-|[]]. exact Logic.I. Qed.

(* unreference and store: the slot is overwritten, a displaced counting pointer is decremented next *)
Lemma act_write : forall s t stk a l v rest prog h1 stk1, ctx s t stk a rest prog ->
  (a = ATake l /\ v = None) \/ a = AStore l v ->
  write_slot (s_heap s) stk l v = (h1, stk1) ->
  inv1 K (with_thr s t (mkThr stk1 (dec_of (read_slot (s_heap s) stk l) ++ rest) prog) h1 (s_pool s)).
Proof.
  intros s t stk a l v rest prog h1 stk1 C Ha Hw.
  pose proof (shape_cons (ctx_shape C)) as Hrest. pose proof (ctx_act a C (or_introl eq_refl)) as W.
  assert (Wl : wloc_ok (s_heap s) stk l) by (destruct Ha as [(-> & _)| ->]; cbn in W; tauto).
  assert (Hr : rest = [] \/ exists v', rest = [AStore l v']) by (destruct Ha as [(-> & _)| ->]; cbn in Hrest; auto).
  assert (Hz : forall z, act_unit z a = cref z v /\ act_debt z a = 0 /\ rel_count z a = 0) by (destruct Ha as [(-> & ->)| ->]; auto).
  apply (write_core s t stk a rest prog l v); auto.
  - apply wloc_wjust; auto.
  - intros z. rewrite sumf_app, dec_of_unit. destruct (Hz z) as (-> & _). lia.
  - intros z. rewrite sumf_app, dec_of_debt. destruct (Hz z) as (_ & -> & _). lia.
  - intros z. rewrite sumf_app, dec_of_rel. destruct (Hz z) as (_ & _ & ->). lia.
  - destruct Hr as [->|(v' & ->)]; [rewrite app_nil_r; apply sh_frames|apply sh_store]; apply dec_of_frames.
  - destruct l as [i|q j]; auto. intros b y j Hin Hb. destruct Hr as [->|(v' & ->)]; [destruct Hin|].
    destruct Hin as [<-|[]]. discriminate.
  - intros b Hin. apply in_app_or in Hin. destruct Hin as [Hin|Hin]; [right; eapply dec_of_ok; eauto|left; auto].
Qed.

Lemma act_take : forall s t stk l rest prog, ctx s t stk (ATake l) rest prog ->
  forall h' stk' todo' p' ev, do_act N K (s_heap s) (s_pool s) stk (ATake l) rest = (h', stk', todo', p', ev) ->
  inv1 K (with_thr s t (mkThr stk' todo' prog) h' p') /\ bad124 ev = false.
Proof.
  intros s t stk l rest prog C h' stk' todo' p' ev Hdo.
  cbn in Hdo. destruct (write_slot (s_heap s) stk l None) as [h1 stk1] eqn:Hw. inversion Hdo; subst; clear Hdo.
  split; [|reflexivity]. exact (act_write s t stk (ATake l) l None rest prog h' stk' C (or_introl (conj eq_refl eq_refl)) Hw).
Qed.

Lemma act_store : forall s t stk l v rest prog, ctx s t stk (AStore l v) rest prog ->
  forall h' stk' todo' p' ev, do_act N K (s_heap s) (s_pool s) stk (AStore l v) rest = (h', stk', todo', p', ev) ->
  inv1 K (with_thr s t (mkThr stk' todo' prog) h' p') /\ bad124 ev = false.
Proof.
  intros s t stk l v rest prog C h' stk' todo' p' ev Hdo.
  cbn in Hdo. destruct (write_slot (s_heap s) stk l v) as [h1 stk1] eqn:Hw. inversion Hdo; subst; clear Hdo.
  split; [|reflexivity]. exact (act_write s t stk (AStore l v) l v rest prog h' stk' C (or_intror eq_refl) Hw).
Qed.

Lemma act_untag : forall s t stk l rest prog, ctx s t stk (AUntag l) rest prog ->
  forall h' stk' todo' p' ev, do_act N K (s_heap s) (s_pool s) stk (AUntag l) rest = (h', stk', todo', p', ev) ->
  inv1 K (with_thr s t (mkThr stk' todo' prog) h' p') /\ bad124 ev = false.
Proof.
  intros s t stk l rest prog C h' stk' todo' p' ev Hdo.
  pose proof (shape_cons (ctx_shape C)) as Hrest. cbn in Hrest. subst rest.
  pose proof (ctx_act (AUntag l) C (or_introl eq_refl)) as W. cbn in W.
  pose proof C as [I Ht E]. cbn in Hdo.
  destruct (read_slot (s_heap s) stk l) as [[q [|]]|] eqn:Hrd.
  - destruct (write_slot (s_heap s) stk l (Some (q, false))) as [h1 stk1] eqn:Hw. inversion Hdo; subst; clear Hdo.
    split; [|reflexivity].
    apply (write_core s t stk (AUntag l) [] prog l (Some (q, false))); auto.
    + apply wloc_wjust; auto.
    + intros z. rewrite Hrd. cbn. unfold eq1. lia.
    + apply (sh_frames [ADecKeep q]). reflexivity.
    + destruct l as [i|q' j]; auto; intros b y j [].
    + intros b [<-|[]]. right. exact Logic.I.
  - inversion Hdo; subst; clear Hdo. split; [|reflexivity]. apply (pop_core s t stk' (AUntag l) [] prog); auto. apply (sh_frames []). reflexivity.
  - inversion Hdo; subst; clear Hdo. split; [|reflexivity]. apply (pop_core s t stk' (AUntag l) [] prog); auto. apply (sh_frames []). reflexivity.
Qed.

(* ---- ADec, ADecKeep ---- *)

Lemma debt_in : forall z todo, 0 < sumf (act_debt z) todo -> exists src, In (AInc z src) todo.
Proof.
  induction todo as [|a todo IH]; cbn; intros H; [lia|].
  destruct (act_debt z a) eqn:Ea.
  - destruct IH as (src & Hs); [lia|]. exists src; auto.
  - destruct a; cbn in Ea; try discriminate. unfold eq1 in Ea. destruct (o =? z) eqn:Eo; [|discriminate].
    apply Nat.eqb_eq in Eo; subst. exists src; auto.
Qed.

(* nobody is about to increment an object that has a positive count but no counting slot *)
Lemma debts_zero : forall s q, inv1 K s -> slots q s = 0 -> 1 <= o_cnt (hobj s q) -> debts q s = 0.
Proof.
  intros s q I Hs Hc. unfold debts. apply sumf_zero. intros th Hin.
  apply In_nth with (d := dthr) in Hin. destruct Hin as (u & Hu & Eu).
  destruct (thr_debts q th) eqn:Ed; auto. exfalso.
  destruct (debt_in q (t_todo th)) as (src & Hsrc); [unfold thr_debts in Ed; lia|].
  assert (A : act_ok s (t_stk (thr s u)) (AInc q src)) by (apply (i_acts K s I u); auto; unfold thr; rewrite Eu; auto).
  cbn in A. destruct src as [[i|y j]|]; cbn in A.
  - pose proof (stk_slot s u i q Hu A). lia.
  - destruct A as (A & _). pose proof (mem_slot s y j q A). lia.
  - lia.
Qed.

(* ADec and ADecKeep are the same decrement; they differ only in whether reaching zero starts the release *)
Lemma dec_core : forall s t stk (keep : bool) rest prog q,
  let a := if keep then ADecKeep q else ADec q in
  ctx s t stk a rest prog ->
  let ob := hobj s q in let zero := negb keep && (o_cnt ob - 1 =? 0) in
  is_live ob = true /\ 1 <= o_cnt ob /\
  inv1 K (with_thr s t (mkThr stk ((if zero then [ARel q 0] else []) ++ rest) prog)
            (upd (s_heap s) q (if zero then dying (set_cnt ob 0) else set_cnt ob (o_cnt ob - 1))) (s_pool s)).
Proof.
  intros s t stk keep rest prog q a C ob zero.
  assert (Hcas : cascade rest) by (pose proof (shape_cons (ctx_shape C)) as H; destruct keep; exact H).
  pose proof C as [I Ht E].
  assert (Hua : forall z, act_unit z a = eq1 q z) by (intros z; destruct keep; reflexivity).
  assert (Hda : forall z, act_debt z a = 0) by (intros z; destruct keep; reflexivity).
  assert (Hra : forall z, rel_count z a = 0) by (intros z; destruct keep; reflexivity).
  assert (Hnet : 1 <= net q (thr s t)).
  { unfold net. rewrite E. cbn [t_todo sumf]. rewrite Hua, Hda, (cascade_debt rest q Hcas), eq1_refl. lia. }
  assert (Hlive : is_live ob = true) by (apply (live_of_units K); auto; eapply net_units; eauto).
  pose proof (count_bound K s q I) as HCB. pose proof (net_le_sum s q t Ht) as HNL. fold ob in HCB.
  assert (Hcnt1 : 1 <= o_cnt ob) by lia.
  assert (Hone : zero = true -> o_cnt ob = 1).
  { unfold zero. intros Hz. apply andb_true_iff in Hz. destruct Hz as (_ & Hz). apply Nat.eqb_eq in Hz. lia. }
  clearbody zero.
  split; auto. split; auto.
  assert (Hlt : q < length (s_heap s)) by (apply live_lt; auto).
  assert (Hst : o_st ob = Live) by (unfold is_live in Hlive; destruct (o_st ob); auto; discriminate).
  pose proof (i_ghost K s I q Hlt) as HG. fold ob in HG. rewrite Hlive in HG.
  apply (point_core s t stk (a :: rest) prog _ prog q); auto; fold ob; rewrite ?sumf_app; cbn [sumf]; rewrite ?Hua, ?Hda, ?Hra.
  - (* members *) destruct zero; reflexivity.
  - (* quiet *) destruct zero; [exact Logic.I|apply live_quiet; exact Hlive].
  - (* why t may touch q *) right; right; left. exact Hnet.
  - (* elsewhere *) intros z Hne. rewrite !sumf_app. cbn [sumf]. rewrite Hua, Hda, Hra, (eq1_ne q z) by auto.
    destruct zero; cbn; rewrite ?(eq1_ne q z) by auto; auto.
  - (* count *) rewrite eq1_refl. destruct zero; cbn; [|lia]. specialize (Hone eq_refl). lia.
  - (* the count reached zero: nothing else refers to q, and nobody is about to increment it *)
    rewrite eq1_refl. destruct zero; [intros _|intros Hz; change (is_live ob = false) in Hz; congruence].
    specialize (Hone eq_refl).
    assert (Hdz : debts q s = 0) by (apply (debts_zero s q I); [lia|unfold ob in Hcnt1; exact Hcnt1]).
    pose proof (i_count K s I q) as HCq. fold ob in HCq. cbn. lia.
  - (* releases *) unfold is_releasing. rewrite Hst. destruct zero; cbn; rewrite ?eq1_refl, ?Hst; lia.
  - (* ghost *) destruct zero; unfold is_live; cbn; rewrite ?Hst; lia.
  - (* shape *) apply cascade_shape; auto. destruct zero; reflexivity.
  - (* own actions *) intros b Hin. apply in_app_or in Hin. destruct Hin as [Hin|Hin].
    + destruct zero; [|destruct Hin]. destruct Hin as [<-|[]]. cbn [act_ok]. rewrite hobj_wt, get_upd_same by auto.
      split; [reflexivity|]. split; [lia|]. intros m Hm. lia.
    + pose proof (ctx_act b C (or_intror Hin)) as A.
      apply (point_kept s _ stk q (if zero then dying (set_cnt ob 0) else set_cnt ob (o_cnt ob - 1)) b A); auto.
      * destruct zero; reflexivity.
      * (* an object private to t cannot be q *)
        intros y j Hl. left. intros ->. destruct (act_wloc s stk b _ A Hl) as (_ & Hq1 & (i & Hi)).
        assert (Hi' : nth i (t_stk (thr s t)) None = Some (q, true)) by (rewrite E; exact Hi).
        pose proof (private_no_net K s t i q I Ht Hi' Hq1 t Ht). lia.
      * intros n ->. exfalso. destruct A as (A & _). unfold is_releasing in A. fold ob in A. rewrite Hst in A. discriminate.
      * intros y ->. destruct (cascade_kinds rest _ Hcas Hin) as [Hf|(l & v & Hb)]; discriminate.
Qed.

Lemma act_dec : forall s t stk q rest prog, ctx s t stk (ADec q) rest prog ->
  forall h' stk' todo' p' ev, do_act N K (s_heap s) (s_pool s) stk (ADec q) rest = (h', stk', todo', p', ev) ->
  inv1 K (with_thr s t (mkThr stk' todo' prog) h' p') /\ bad124 ev = false.
Proof.
  intros s t stk q rest prog C h' stk' todo' p' ev Hdo.
  destruct (dec_core s t stk false rest prog q C) as (Hlive & Hcnt & HI). cbn [negb andb] in HI.
  cbn in Hdo. unfold dec_obj in Hdo. unfold hobj in Hlive, Hcnt, HI. rewrite Hlive in Hdo.
  assert (Hpos : (0 <? o_cnt (get_obj (s_heap s) q)) = true) by (apply Nat.ltb_lt; lia).
  rewrite Hpos in Hdo. cbn [andb] in Hdo.
  destruct (o_cnt (get_obj (s_heap s) q) - 1 =? 0); inversion Hdo; subst; clear Hdo; split; auto.
Qed.

Lemma act_deckeep : forall s t stk q rest prog, ctx s t stk (ADecKeep q) rest prog ->
  forall h' stk' todo' p' ev, do_act N K (s_heap s) (s_pool s) stk (ADecKeep q) rest = (h', stk', todo', p', ev) ->
  inv1 K (with_thr s t (mkThr stk' todo' prog) h' p') /\ bad124 ev = false.
Proof.
  intros s t stk q rest prog C h' stk' todo' p' ev Hdo.
  destruct (dec_core s t stk true rest prog q C) as (Hlive & Hcnt & HI). cbn [negb andb] in HI.
  cbn in Hdo. unfold dec_keep in Hdo. unfold hobj in Hlive, Hcnt, HI. rewrite Hlive in Hdo.
  assert (Hpos : (0 <? o_cnt (get_obj (s_heap s) q)) = true) by (apply Nat.ltb_lt; lia).
  rewrite Hpos in Hdo. cbn [andb] in Hdo. inversion Hdo; subst; clear Hdo; split; auto.
Qed.

End Acts.
