(* C10 -- the atomic-step premise tied to the source, and what it buys. *)
From Coq Require Import List Arith Bool Lia.
From Muscle Require Import Conc.RefCnt Conc.RefInv Conc.AtomicStep.
Import ListNotations.
Local Open Scope nat_scope.

(* the translated code shape IS the single read-modify-write (the translator evaluates the flags from system/AtomicCounter.h on every run) *)
Lemma code_atomic_tied : code_atomic_ok = true.
Proof. vm_compute. reflexivity. Qed.

Lemma run_rmw_zeros : forall k c, k <= c -> zeros (run_rmw c k) = if (k =? c) && (1 <=? c) then 1 else 0.
Proof.
  induction k as [|k IH]; intros c Hk; cbn [run_rmw zeros].
  - destruct c; reflexivity.
  - destruct c as [|c]; [lia|]. replace (S c - 1) with c by lia. rewrite IH by lia.
    destruct c as [|c].
    + assert (k = 0) by lia. subst. reflexivity.
    + cbn [Nat.eqb]. destruct (k =? S c) eqn:E; cbn; reflexivity.
Qed.

(* n threads drop the last n references with single-RMW decrements: exactly one of them is told "zero" *)
Theorem rmw_exactly_one : forall n, 1 <= n -> zeros (run_rmw n n) = 1.
Proof.
  intros n Hn. rewrite run_rmw_zeros by lia. rewrite Nat.eqb_refl. destruct n; [lia|]. reflexivity.
Qed.

(* with the split decrement two threads can both be told "zero": the object is released twice *)
Theorem split_refuted : exists sched, snd (run_split 2 [(0, false); (0, false)] sched) = [(2, true); (2, true)].
Proof. exists [0; 1; 0; 1]. vm_compute. reflexivity. Qed.

(* the model's decrement step is the single RMW: count and answer come from one and the same step *)
Theorem dec_obj_is_rmw : forall h q h' z, dec_obj h q = Some (h', z) ->
  o_cnt (get_obj h' q) = o_cnt (get_obj h q) - 1 /\ z = (o_cnt (get_obj h q) - 1 =? 0).
Proof.
  intros h q h' z H. unfold dec_obj in H.
  destruct (is_live (get_obj h q)) eqn:El; cbn [andb] in H; [|discriminate].
  destruct (0 <? o_cnt (get_obj h q)); [|discriminate].
  pose proof (live_lt _ _ El) as Hq.
  destruct (o_cnt (get_obj h q) - 1 =? 0) eqn:E; inversion H; subst; rewrite get_upd_same by auto; cbn; split; auto.
  apply Nat.eqb_eq in E. lia.
Qed.

Theorem atomic_premise_tied :
  code_atomic_ok = true /\
  (forall h q h' z, dec_obj h q = Some (h', z) ->
     o_cnt (get_obj h' q) = o_cnt (get_obj h q) - 1 /\ z = (o_cnt (get_obj h q) - 1 =? 0)) /\
  (forall n, 1 <= n -> zeros (run_rmw n n) = 1).
Proof. split; [exact code_atomic_tied|]. split; [exact dec_obj_is_rmw|exact rmw_exactly_one]. Qed.
