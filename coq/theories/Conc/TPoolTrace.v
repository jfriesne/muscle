(* C19 -- the invariant that ties the event trace (submissions, handler entries and returns) to the pool's state. *)
From Coq Require Import List Arith Bool Lia.
From Muscle Require Import Conc.TPool Conc.TPoolLemmas Conc.TPoolInv Conc.TPoolStep.
Import ListNotations.

(* ---------------------------------------------------------------- the thread working for a client *)

Lemma worker_some : forall s c t h, SInv s ->
  (worker s c = Some (t, h) <-> tget t (s_thr s) = Some h /\ th_client h = Some c).
Proof.
  intros s c t h I. unfold worker.
  assert (Hfwd : forall t' h', find (works_for c) (s_thr s) = Some (t', h') -> tget t' (s_thr s) = Some h' /\ th_client h' = Some c).
  { intros t' h' Hf. apply find_some in Hf. destruct Hf as [Hin Hw]. split.
    - apply In_tget; auto. apply (i_nd_thr _ I).
    - unfold works_for in Hw. cbn in Hw. destruct (th_client h') as [c'|]; [|discriminate]. apply Nat.eqb_eq in Hw. now subst. }
  split; [apply Hfwd|].
  intros [Ht Hc]. destruct (find (works_for c) (s_thr s)) as [[t' h']|] eqn:Hf.
  - destruct (Hfwd t' h' eq_refl) as [Ht' Hc'].
    assert (t' = t) by (eapply (i_thr_uniq _ I); eauto). subst. congruence.
  - exfalso. apply tget_In in Ht. eapply find_none in Hf; eauto. unfold works_for in Hf. cbn in Hf. rewrite Hc, Nat.eqb_refl in Hf. discriminate.
Qed.

Lemma worker_none : forall s c, SInv s ->
  (worker s c = None <-> forall t h, tget t (s_thr s) = Some h -> th_client h <> Some c).
Proof.
  intros s c I. split.
  - intros Hn t h Ht Hc. assert (worker s c = Some (t, h)) by (apply worker_some; auto). congruence.
  - intros H. destruct (worker s c) as [[t h]|] eqn:E; auto. apply worker_some in E; auto. destruct E as [Ht Hc]. exfalso. eapply H; eauto.
Qed.

Lemma worker_ext : forall s s' c, SInv s -> SInv s' ->
  (forall t h, (tget t (s_thr s') = Some h /\ th_client h = Some c) <-> (tget t (s_thr s) = Some h /\ th_client h = Some c)) ->
  worker s' c = worker s c.
Proof.
  intros s s' c I I' H. destruct (worker s c) as [[t h]|] eqn:E.
  - apply worker_some; auto. apply H. now apply worker_some.
  - apply worker_none; auto. intros t h Ht Hc. rewrite worker_none in E by auto. eapply E; [|exact Hc]. apply H. eauto.
Qed.

(* what the trace functions see of the state, per client *)
Definition runhead (s : st) (c : nat) : list nat :=
  match worker s c with Some (_, h) => if th_running h then firstn 1 (th_queue h) else [] | None => [] end.
Definition opencall (s : st) (c : nat) : option (nat * nat) :=
  match worker s c with
  | Some (t, h) => if th_running h then match th_queue h with m :: _ => Some (t, m) | [] => None end else None
  | None => None
  end.

(* the two states show the same of client c to the trace functions *)
Definition same_obs (s s' : st) (c : nat) : Prop :=
  queued s' c = queued s c /\ runhead s' c = runhead s c /\ opencall s' c = opencall s c.

Definition same_view (s s' : st) (c : nat) : Prop :=
  worker s' c = worker s c /\ qof (s_pend s') c = qof (s_pend s) c /\ qof (s_defer s') c = qof (s_defer s) c.

Lemma same_view_obs : forall s s' c, same_view s s' c -> same_obs s s' c.
Proof. intros s s' c [H1 [H2 H3]]. unfold same_obs, queued, inflight, runhead, opencall. now rewrite H1, H2, H3. Qed.

Lemma same_obs_refl : forall s c, same_obs s s c.
Proof. intros. repeat split. Qed.

Lemma same_obs_trans : forall s1 s2 s3 c, same_obs s1 s2 c -> same_obs s2 s3 c -> same_obs s1 s3 c.
Proof. intros s1 s2 s3 c [A1 [A2 A3]] [B1 [B2 B3]]. repeat split; congruence. Qed.

Lemma set_bad_obs : forall s b c, same_obs s (set_bad s b) c.
Proof. intros. repeat split. Qed.

Lemma spawn_obs : forall s c, SInv s -> SInv (spawn s) -> same_obs s (spawn s) c.
Proof.
  intros s c I I'. apply same_view_obs. split; [|split; reflexivity].
  apply worker_ext; auto. intros t h. unfold spawn; sst. rewrite tget_tset.
  destruct (Nat.eqb_spec t (s_ctr s)) as [->|Hn]; [|tauto].
  split; [intros [E Hc]; injection E as <-; discriminate|].
  intros [Ht _]. apply (i_fresh_thr _ I) in Ht. lia.
Qed.

(* moving a client's pending queue into an idle thread does not change what is queued for it *)
Lemma assign_obs : forall s t c mq rest c',
  SInv s -> s_shut s = false -> last_opt (s_avail s) = Some t -> s_pend s = (c, mq) :: rest -> mq <> [] ->
  same_obs s (assign s t c mq) c'.
Proof.
  intros s t c mq rest c' I Hsh Hlast Hp Hmq.
  pose proof (assign_inv s t c mq rest I Hsh Hlast Hp Hmq) as I'. dI I.
  assert (Hin : In t (s_avail s)) by now apply last_opt_In.
  destruct (i_avail_idle0 t Hin) as [h0 [Ht0 [Hidle Hex]]].
  apply thr_idle_spec in Hidle. destruct Hidle as [Hc0 [Hq0 Hr0]].
  assert (Hpc : tget c (s_pend s) = Some mq) by (rewrite Hp; apply tget_hd).
  destruct (i_pend_ok0 c mq Hpc) as [_ Hregc].
  assert (Hnoc : forall t' h', tget t' (s_thr s) = Some h' -> th_client h' <> Some c).
  { intros t' h' Ht' Hcl. rewrite (i_thr_reg0 _ _ _ Ht' Hcl) in Hregc. discriminate. }
  assert (Ethr : s_thr (assign s t c mq) = tset t (mkThr (Some c) mq false false) (s_thr s)).
  { unfold assign, thr_of. rewrite Ht0. sst. now rewrite Hr0, Hex. }
  assert (Epend : s_pend (assign s t c mq) = rest) by (unfold assign; sst; now rewrite Hp).
  assert (Edefer : s_defer (assign s t c mq) = s_defer s) by reflexivity.
  destruct (Nat.eq_dec c' c) as [->|Hn].
  - assert (W0 : worker s c = None) by (apply worker_none; auto).
    assert (W1 : worker (assign s t c mq) c = Some (t, mkThr (Some c) mq false false)).
    { apply worker_some; auto. rewrite Ethr, tget_tset_same. auto. }
    unfold same_obs, queued, inflight, runhead, opencall. rewrite W0, W1, Epend, Edefer. cbn [th_queue th_running].
    assert (Hrc : qof rest c = []).
    { unfold qof. rewrite Hp in i_nd_pend0. apply tget_tl_same in i_nd_pend0. now rewrite i_nd_pend0. }
    rewrite Hrc. replace (qof (s_pend s) c) with mq by (unfold qof; now rewrite Hpc). cbn [app]. repeat split.
  - apply same_view_obs. split; [|split].
    + apply worker_ext; auto. intros t' h'. rewrite Ethr, tget_tset.
      destruct (Nat.eqb_spec t' t) as [->|]; [|tauto].
      split; [intros [E Hc]; injection E as <-; cbn in Hc; congruence|intros [E Hc]; congruence].
    + rewrite Epend. unfold qof. rewrite Hp. now rewrite tget_tl_other.
    + now rewrite Edefer.
Qed.

Lemma dispatch_obs : forall s c', SInv s -> same_obs s (dispatch s) c'.
Proof.
  intros s c'. apply (dispatch_rel (fun a b => same_obs a b c')).
  - intros; apply same_obs_refl.
  - intros s1 s2 s3; apply same_obs_trans.
  - intros s0. apply set_bad_obs.
  - intros s0 I0 Hsh Hav Hlt. apply spawn_obs; auto. now apply spawn_inv.
  - intros; eapply assign_obs; eauto.
Qed.

(* ---------------------------------------------------------------- traces *)

(* the open handler call of client c after scanning a trace; None = two calls overlapped or a return did not match *)
Fixpoint scan (op : option (nat * nat)) (tr : list event) (c : nat) : option (option (nat * nat)) :=
  match tr with
  | [] => Some op
  | EEnter c' m t _ :: tl =>
    if Nat.eqb c c' then match op with None => scan (Some (t, m)) tl c | Some _ => None end else scan op tl c
  | EExit c' m t :: tl =>
    if Nat.eqb c c'
    then match op with
         | Some (t', m') => if Nat.eqb t t' && Nat.eqb m m' then scan None tl c else None
         | None => None
         end
    else scan op tl c
  | _ :: tl => scan op tl c
  end.

Lemma scan_serial : forall tr op c, serial_from op tr c = true <-> scan op tr c <> None.
Proof.
  induction tr as [|e tl IH]; intros op c; cbn; [split; [discriminate|auto]|].
  destruct e; try apply IH.
  - destruct (Nat.eqb c c0); [|apply IH]. destruct op; [split; [discriminate|congruence]|apply IH].
  - destruct (Nat.eqb c c0); [|apply IH]. destruct op as [[t' m']|]; [|split; [discriminate|congruence]].
    destruct (Nat.eqb t t' && Nat.eqb m m'); cbn; [apply IH|split; [discriminate|congruence]].
Qed.

Lemma scan_app : forall a b op c,
  scan op (a ++ b) c = match scan op a c with Some op' => scan op' b c | None => None end.
Proof.
  induction a as [|e tl IH]; intros b op c; cbn; auto.
  destruct e; auto.
  - destruct (Nat.eqb c c0); auto. destruct op; auto.
  - destruct (Nat.eqb c c0); auto. destruct op as [[t' m']|]; auto. destruct (Nat.eqb t t' && Nat.eqb m m'); auto.
Qed.

Definition TInv (s : st) (tr : list event) : Prop := forall c,
  (* nothing lost, nothing reordered: accepted = handled ++ still held (Shutdown()'s final section drops what is held) *)
  (s_sd s <> SdDone -> exited tr c ++ queued s c = submitted tr c) /\
  (* the only Message entered and not yet returned is the head of the batch of c's running thread *)
  entered tr c = exited tr c ++ runhead s c /\
  (* the calls of c never overlapped, and the open one is that thread's *)
  scan None tr c = Some (opencall s c) /\
  (* kept apart because the first clause says nothing once Shutdown() has run *)
  (exists rest, entered tr c ++ rest = submitted tr c).

(* events that are neither accepted submissions nor handler entries/returns *)
Definition silent (ev : list event) : Prop := forall c,
  submitted ev c = [] /\ entered ev c = [] /\ exited ev c = [] /\ forall op, scan op ev c = Some op.

Lemma silent_nil : silent [].
Proof. intros c. repeat split. Qed.

Lemma silent_app : forall a b, silent a -> silent b -> silent (a ++ b).
Proof.
  intros a b Ha Hb c. destruct (Ha c) as [A1 [A2 [A3 A4]]]. destruct (Hb c) as [B1 [B2 [B3 B4]]].
  rewrite submitted_app, entered_app, exited_app, A1, A2, A3, B1, B2, B3. repeat split.
  intros op. now rewrite scan_app, A4, B4.
Qed.

Lemma silent_notifies : forall l, silent (map ENotify l).
Proof. induction l as [|a l IH]; [apply silent_nil|]. intros c. destruct (IH c) as [A1 [A2 [A3 A4]]]. cbn. repeat split; auto. Qed.

Lemma silent_single : forall e,
  match e with ESubmit _ _ SendOk => False | EEnter _ _ _ _ => False | EExit _ _ _ => False | _ => True end -> silent [e].
Proof.
  intros e H c. destruct e; try contradiction; cbn; repeat split.
  destruct r; try contradiction; cbn; rewrite ?andb_false_r; reflexivity.
Qed.

Lemma tinv_silent : forall s tr s' ev,
  TInv s tr -> silent ev ->
  (s_sd s' <> SdDone -> s_sd s <> SdDone /\ forall c, queued s' c = queued s c) ->
  (forall c, runhead s' c = runhead s c /\ opencall s' c = opencall s c) ->
  TInv s' (tr ++ ev).
Proof.
  intros s tr s' ev T Hs Hq Hr c. destruct (T c) as [T1 [T2 [T3 T4]]]. destruct (Hs c) as [S1 [S2 [S3 S4]]].
  destruct (Hr c) as [R1 R2].
  rewrite submitted_app, entered_app, exited_app, scan_app, S1, S2, S3, T3, S4, !app_nil_r, R1, R2. repeat split; auto.
  intros Hsd. destruct (Hq Hsd) as [Hsd0 Hq0]. rewrite Hq0. auto.
Qed.

Lemma same_obs_tinv : forall s tr s' ev,
  TInv s tr -> silent ev -> (s_sd s' <> SdDone -> s_sd s <> SdDone) -> (forall c, same_obs s s' c) -> TInv s' (tr ++ ev).
Proof.
  intros s tr s' ev T Hs Hsd Ho. eapply tinv_silent; eauto.
  - intros H. split; auto. intros c. now destruct (Ho c).
  - intros c. destruct (Ho c) as [_ [H1 H2]]. auto.
Qed.

(* states with the same thread table and the same queues look the same *)
Lemma same_tables_obs : forall s s' c,
  s_thr s' = s_thr s -> qof (s_pend s') c = qof (s_pend s) c -> qof (s_defer s') c = qof (s_defer s) c -> same_obs s s' c.
Proof.
  intros s s' c E1 E2 E3. apply same_view_obs. split; [|split; auto]. unfold worker. now rewrite E1.
Qed.

Lemma quiet_tinv : forall s tr s' ev,
  TInv s tr -> silent ev -> (s_sd s' <> SdDone -> s_sd s <> SdDone) ->
  s_thr s' = s_thr s -> s_pend s' = s_pend s -> s_defer s' = s_defer s -> TInv s' (tr ++ ev).
Proof. intros s tr s' ev T Hs Hsd E1 E2 E3. apply (same_obs_tinv s); auto. intros c. apply same_tables_obs; congruence. Qed.

(* ---------------------------------------------------------------- thread-table updates seen through [worker] *)

Lemma upd_thr_worker_keep : forall s t h h' c,
  SInv s -> SInv (upd_thr s t h') -> tget t (s_thr s) = Some h -> th_client h = Some c -> th_client h' = Some c ->
  worker s c = Some (t, h) /\ worker (upd_thr s t h') c = Some (t, h') /\
  forall c', c' <> c -> worker (upd_thr s t h') c' = worker s c'.
Proof.
  intros s t h h' c I I' Ht Hc Hc'. split; [apply worker_some; auto|]. split.
  - apply worker_some; auto. unfold upd_thr; sst. now rewrite tget_tset_same.
  - intros c' Hn. apply worker_ext; auto. intros t' x. unfold upd_thr; sst. rewrite tget_tset.
    destruct (Nat.eqb_spec t' t) as [->|]; [|tauto].
    split; intros [E Hx]; [injection E as <-|]; congruence.
Qed.

Lemma worker_drop : forall s s' t h h' c,
  SInv s -> SInv s' -> s_thr s' = tset t h' (s_thr s) ->
  tget t (s_thr s) = Some h -> th_client h = Some c -> th_client h' = None ->
  worker s c = Some (t, h) /\ worker s' c = None /\
  forall c', c' <> c -> worker s' c' = worker s c'.
Proof.
  intros s s' t h h' c I I' Ethr Ht Hc Hc'. split; [apply worker_some; auto|]. split.
  - apply worker_none; auto. intros t' x. rewrite Ethr, tget_tset.
    destruct (Nat.eqb_spec t' t) as [->|Hn]; [intros E; injection E as <-; congruence|].
    intros Hg Hx. apply Hn. eapply (i_thr_uniq _ I); eauto.
  - intros c' Hn. apply worker_ext; auto. intros t' x. rewrite Ethr, tget_tset.
    destruct (Nat.eqb_spec t' t) as [->|]; [|tauto].
    split; intros [E Hx]; [injection E as <-|]; congruence.
Qed.

(* an idle thread that stays without a client: nobody's worker before, nobody's after *)
Lemma worker_idle : forall s s' t h' c',
  SInv s -> SInv s' -> s_thr s' = tset t h' (s_thr s) -> thr_idle (thr_of s t) = true -> th_client h' = None ->
  worker s' c' = worker s c'.
Proof.
  intros s s' t h' c' I I' Ethr Hid Hc'. apply worker_ext; auto. intros t' x. rewrite Ethr, tget_tset.
  destruct (Nat.eqb_spec t' t) as [->|]; [|tauto].
  apply thr_idle_spec in Hid. destruct Hid as [Hid _]. unfold thr_of in Hid.
  split; intros [E Hx]; [injection E as <-; congruence|]. rewrite E in Hid. congruence.
Qed.

Lemma upd_thr_worker_idle : forall s t h' c',
  SInv s -> SInv (upd_thr s t h') -> thr_idle (thr_of s t) = true -> th_client h' = None ->
  worker (upd_thr s t h') c' = worker s c'.
Proof. intros s t h' c' I I' Hid Hc'. now apply (worker_idle s _ t h'). Qed.

(* ---------------------------------------------------------------- the labels *)

Lemma tinv_submit : forall s tr s' c m,
  TInv s tr -> (s_sd s' <> SdDone -> s_sd s <> SdDone) ->
  queued s' c = queued s c ++ [m] -> (forall c', c' <> c -> queued s' c' = queued s c') ->
  (forall c', runhead s' c' = runhead s c' /\ opencall s' c' = opencall s c') ->
  TInv s' (tr ++ [ESubmit c m SendOk]).
Proof.
  intros s tr s' c m T Hsd Hq Hoth Hr c'. destruct (T c') as [T1 [T2 [T3 [rest T4]]]]. destruct (Hr c') as [R1 R2].
  rewrite submitted_app, entered_app, exited_app, scan_app, T3, R1, R2. cbn [submitted entered exited scan is_ok].
  rewrite !app_nil_r. destruct (Nat.eqb_spec c' c) as [->|Hn]; cbn [andb].
  - repeat split; auto.
    + intros H. rewrite Hq, app_assoc, T1; auto.
    + exists (rest ++ [m]). now rewrite app_assoc, T4.
  - rewrite app_nil_r. repeat split; auto.
    + intros H. rewrite Hoth; auto.
    + eauto.
Qed.

Lemma defer_empty_unhandled : forall s c, SInv s -> tget c (s_reg s) = Some false -> qof (s_defer s) c = [].
Proof.
  intros s c I Hr. unfold qof. destruct (tget c (s_defer s)) as [q|] eqn:E; auto.
  destruct q; auto. assert (tget c (s_reg s) = Some true) by (eapply (i_defer_ok _ I); eauto; discriminate). congruence.
Qed.

Lemma send_tinv : forall s tr c m s' r,
  Inv s -> TInv s tr -> sent s c m s' r -> TInv s' (tr ++ [ESubmit c m r]).
Proof.
  intros s tr c m s' r [I [U W]] T Hs.
  assert (Hq : forall s1, s_thr s1 = s_thr s ->
            (qof (s_pend s1) c ++ qof (s_defer s1) c = (qof (s_pend s) c ++ qof (s_defer s) c) ++ [m]) ->
            (forall c', c' <> c -> qof (s_pend s1) c' = qof (s_pend s) c' /\ qof (s_defer s1) c' = qof (s_defer s) c') ->
            queued s1 c = queued s c ++ [m] /\ forall c', c' <> c -> queued s1 c' = queued s c').
  { intros s1 E1 E2 Hoth. unfold queued, inflight, worker. rewrite E1. split.
    - now rewrite E2, !app_assoc.
    - intros c' Hn. destruct (Hoth c' Hn) as [-> ->]. reflexivity. }
  assert (Hq1 : tget c (s_reg s) = Some false ->
            let s1 := set_pend s (tappend c m (s_pend s)) in
            queued s1 c = queued s c ++ [m] /\ forall c', c' <> c -> queued s1 c' = queued s c').
  { intros Hr. apply Hq; sst; auto; unfold tappend.
    - rewrite qof_tset, Nat.eqb_refl, (defer_empty_unhandled s c I Hr). now rewrite !app_nil_r.
    - intros c' Hn. rewrite qof_tset. destruct (Nat.eqb_spec c' c); [congruence|auto]. }
  destruct Hs.
  - (* sent_defer *) destruct (Hq (set_defer s (tappend c m (s_defer s)))) as [Q1 Q2]; sst; auto; unfold tappend.
    + rewrite qof_tset, Nat.eqb_refl. now rewrite app_assoc.
    + intros c' Hn. rewrite qof_tset. destruct (Nat.eqb_spec c' c); [congruence|auto].
    + apply (tinv_submit s); auto.
  - (* sent_queue *) destruct (Hq1 Hr) as [Q1 Q2]. apply (tinv_submit s); auto.
  - (* sent_dispatch *) destruct (Hq1 Hr) as [Q1 Q2]. pose proof (send_pend_inv s c m I Hr) as I1.
    set (s1 := set_pend s (tappend c m (s_pend s))) in *.
    destruct (dispatch_frame s1 I1) as [_ [_ [_ [_ [_ [_ F7]]]]]].
    apply (tinv_submit s); auto.
    + rewrite F7. auto.
    + destruct (dispatch_obs s1 c I1) as [O1 _]. congruence.
    + intros c' Hn. destruct (dispatch_obs s1 c' I1) as [O1 _]. rewrite O1. auto.
    + intros c'. destruct (dispatch_obs s1 c' I1) as [_ [O2 O3]]. rewrite O2, O3. split; reflexivity.
  - (* sent_bad *) apply (same_obs_tinv s); auto using same_obs_refl. now apply silent_single.
Qed.

Lemma busy_not_done : forall s t h c, SInv s -> tget t (s_thr s) = Some h -> th_client h = Some c -> s_sd s <> SdDone.
Proof.
  intros s t h c I Ht Hc Hsd. dI I. rewrite Hsd in *. destruct i_sd_tabs0 as [Hav Hac]. rewrite Hav, Hac in *.
  destruct (i_place0 t h Ht) as [H|[[]|[[]|[]]]]. destruct (i_thr_wf0 t h Ht) as [_ [_ W3]]. rewrite W3 in Hc; [discriminate|auto].
Qed.

Lemma enter_tinv : forall s tr t h c m q,
  SInv s -> TInv s tr -> tget t (s_thr s) = Some h -> th_client h = Some c -> th_queue h = m :: q -> th_running h = false ->
  let s' := upd_thr s t (mkThr (Some c) (m :: q) true (th_exited h)) in
  SInv s' -> TInv s' (tr ++ [EEnter c m t (length q)]).
Proof.
  intros s tr t h c m q I T Ht Hc Hq Hr s' I' c'.
  destruct (upd_thr_worker_keep s t h (mkThr (Some c) (m :: q) true (th_exited h)) c I I' Ht Hc eq_refl) as [W0 [W1 Wo]].
  fold s' in W1, Wo.
  destruct (T c') as [T1 [T2 [T3 [rest T4]]]].
  rewrite submitted_app, entered_app, exited_app, scan_app, T3. cbn [submitted entered exited scan]. rewrite !app_nil_r.
  destruct (Nat.eqb_spec c' c) as [->|Hn].
  - unfold queued, inflight, runhead, opencall in *. rewrite W0 in *. rewrite W1. cbn [th_queue th_running firstn].
    rewrite Hq, Hr in *. rewrite app_nil_r in T2.
    assert (Hsd : s_sd s <> SdDone) by (eapply busy_not_done; eauto).
    repeat split; auto.
    + congruence.
    + exists (q ++ qof (s_pend s) c ++ qof (s_defer s) c). rewrite T2, <- T1 by auto. now rewrite <- app_assoc.
  - rewrite app_nil_r. unfold queued, inflight, runhead, opencall in *. rewrite (Wo c' Hn). repeat split; eauto.
Qed.

Lemma exit_tinv : forall s tr t h c m q,
  SInv s -> TInv s tr -> tget t (s_thr s) = Some h -> th_client h = Some c -> th_queue h = m :: q -> th_running h = true ->
  let s' := upd_thr s t (mkThr (Some c) q false (th_exited h)) in
  SInv s' -> TInv s' (tr ++ [EExit c m t]).
Proof.
  intros s tr t h c m q I T Ht Hc Hq Hr s' I' c'.
  destruct (upd_thr_worker_keep s t h (mkThr (Some c) q false (th_exited h)) c I I' Ht Hc eq_refl) as [W0 [W1 Wo]].
  fold s' in W1, Wo.
  destruct (T c') as [T1 [T2 [T3 [rest T4]]]].
  rewrite submitted_app, entered_app, exited_app, scan_app, T3. cbn [submitted entered exited scan]. rewrite !app_nil_r.
  destruct (Nat.eqb_spec c' c) as [->|Hn].
  - unfold queued, inflight, runhead, opencall in *. rewrite W0 in *. rewrite W1. cbn [th_queue th_running firstn].
    rewrite Hq, Hr in *. cbn [firstn] in T2. rewrite !Nat.eqb_refl. cbn [andb]. rewrite app_nil_r.
    repeat split; eauto.
    intros Hsd. rewrite <- T1 by auto. now rewrite <- app_assoc.
  - rewrite app_nil_r. unfold queued, inflight, runhead, opencall in *. rewrite (Wo c' Hn). repeat split; eauto.
Qed.

Lemma fin_core_thr : forall s t c, s_thr (fin_core s t c) = s_thr s.
Proof.
  intros s t c. unfold fin_core.
  destruct (tget c (s_reg s)) as [b|]; sst.
  - destruct (tget c (s_defer s)) as [[|d0 dr]|]; sst; destruct (lmem t (s_active s)); reflexivity.
  - destruct (lmem t (s_active s)); reflexivity.
Qed.

Lemma finish_obs : forall s t h c s' ev,
  Inv s -> tget t (s_thr s) = Some h -> th_client h = Some c -> th_queue h = [] -> th_running h = false ->
  finished (upd_thr s t (mkThr None [] false (th_exited h))) t c = (s', ev) ->
  (forall c', same_obs s s' c') /\ silent ev /\ s_sd s' = s_sd s.
Proof.
  intros s t h c s' ev [I [U W]] Ht Hc Hq Hr Hf. unfold finished in Hf.
  change (s_shut (upd_thr s t (mkThr None [] false (th_exited h)))) with (s_shut s) in Hf.
  set (sA := upd_thr s t (mkThr None [] false (th_exited h))) in *.
  destruct (s_shut s) eqn:Hsh.
  - injection Hf as <- <-. split; [|split; [apply silent_nil|reflexivity]].
    assert (I' : SInv sA) by (eapply upd_thr_inv; eauto; [congruence|discriminate]).
    intros c'.
    destruct (worker_drop s sA t h (mkThr None [] false (th_exited h)) c I I' eq_refl Ht Hc eq_refl) as [W0 [W1 Wo]].
    destruct (Nat.eq_dec c' c) as [->|Hn].
    + unfold same_obs, queued, inflight, runhead, opencall. rewrite W0, W1, Hq, Hr. repeat split.
    + apply same_view_obs. split; [auto|split; reflexivity].
  - pose proof (fin_core_inv s t h c I Hsh Ht Hc Hq Hr) as I2.
    destruct (fin_core_other s t h c I Hsh Ht Hc) as [Ew [Eu [Es [Esd [Hoth [Hh2 [Hp2 Hd2]]]]]]].
    destruct (fin_facts s t h c I Hsh Ht Hc) as [Hregc [Hpn [Hm Hex]]].
    fold sA in I2, Ew, Eu, Es, Esd, Hoth, Hh2, Hp2, Hd2.
    set (s2 := fin_core sA t c) in *.
    assert (Ethr : s_thr s2 = tset t (mkThr None [] false (th_exited h)) (s_thr s)) by (unfold s2; now rewrite fin_core_thr).
    destruct (worker_drop s s2 t h (mkThr None [] false (th_exited h)) c I I2 Ethr Ht Hc eq_refl) as [W0 [W1 Wo]].
    assert (O2 : forall c', same_obs s s2 c').
    { intros c'. destruct (Nat.eq_dec c' c) as [->|Hn].
      - unfold same_obs, queued, inflight, runhead, opencall. rewrite W0, W1, Hq, Hr, Hp2, Hd2.
        unfold qof at 2. rewrite Hpn. cbn [app]. rewrite app_nil_r. repeat split.
      - apply same_view_obs. destruct (Hoth c' Hn) as [_ [H2 H3]]. split; [auto|]. unfold qof. now rewrite H2, H3. }
    destruct (dispatch_frame s2 I2) as [_ [_ [_ [_ [_ [_ F7]]]]]].
    destruct (fin_notify_frame _ _ _ _ Hf) as [u [w [-> Hev]]].
    split; [|split; [destruct Hev as [->| ->]; [apply silent_nil|now apply silent_single]|sst; congruence]].
    intros c'. eapply same_obs_trans; [apply O2|]. eapply same_obs_trans; [apply dispatch_obs; auto|].
    apply same_tables_obs; reflexivity.
Qed.

Lemma init_tinv : forall n, TInv (init n) [].
Proof. intros n c. cbn. repeat split; try discriminate. now exists []. Qed.

Theorem step_tinv : forall s tr l s' ev, Inv s -> TInv s tr -> step s l = Some (s', ev) -> TInv s' (tr ++ ev).
Proof.
  intros s tr l s' ev HI T Hst. pose proof (step_inv s l s' ev HI Hst) as [I' _].
  pose proof HI as [I [U W]]. apply step_trans in Hst. destruct Hst.
  - (* t_register_same *) apply (quiet_tinv s); auto using silent_nil.
  - (* t_register *) apply (quiet_tinv s); auto using silent_nil.
  - (* t_submit *) eapply send_tinv; eauto.
  - (* t_submit_unregistered *) apply (quiet_tinv s); auto. now apply silent_single.
  - (* t_enter *) eapply enter_tinv; eauto.
  - (* t_exit *) eapply exit_tinv; eauto.
  - (* t_finish *) destruct (finish_obs s t h c s' ev HI Ht Hc Hq Hr Hf) as [Ho [Hs Hsd]].
    apply (same_obs_tinv s); auto. congruence.
  - (* t_unreg_begin *) unfold unreg_begin in Hb. destruct (outstanding s c); injection Hb as <- <-;
      (apply (quiet_tinv s); auto; now apply silent_single).
  - (* t_unreg_wake *) apply (quiet_tinv s); auto using silent_nil.
  - (* t_unreg_end: the final section drops queues that are empty already *)
    apply (same_obs_tinv s); auto; [now apply silent_single|].
    assert (Ho : outstanding s c = false) by (apply (u_done _ U c UFinal); auto; discriminate).
    destruct (not_outstanding s c I Ho) as [_ [Hpn Hdn]].
    intros c'. apply same_tables_obs; auto; unfold unreg_end; sst; rewrite qof_tdel;
      destruct (Nat.eqb_spec c' c) as [->|]; auto. unfold qof. now rewrite Hpn.
  - (* t_shut_begin *) apply (quiet_tinv s); auto using silent_nil. intros _. rewrite Hsd. discriminate.
  - (* t_shut_swap_avail *) apply (quiet_tinv s); auto using silent_nil. intros _. destruct Hsd as [E|E]; rewrite E; discriminate.
  - (* t_shut_swap_active *) apply (quiet_tinv s); auto using silent_nil. intros _. rewrite Hsd. discriminate.
  - (* t_shut_join: the joined thread was idle: it worked for nobody before and works for nobody now *)
    apply (same_obs_tinv s); auto using silent_nil.
    + intros _. destruct Hsd as [[nz [E _]]|[nz [E _]]]; rewrite E; discriminate.
    + intros c'. apply same_view_obs. split; [|split; reflexivity]. now apply (worker_idle s _ t (mkThr None [] false true)).
  - (* t_shut_end *) rewrite shut_end_eq in He. injection He as <- <-.
    eapply tinv_silent; eauto.
    + apply silent_app; [apply silent_notifies|now apply silent_single].
    + intros H. now contradiction H.
  - (* t_submit_stale *) eapply send_tinv; eauto.
Qed.

Theorem reach_tinv : forall n s tr, reach n s tr -> TInv s tr.
Proof.
  intros n s tr H. induction H; [apply init_tinv|]. eapply step_tinv; eauto. eapply reach_inv; eauto.
Qed.
