(* C10 -- consequences of the invariant used in every preservation case: who can hold what; and the frame of a
   step of one thread: what the thread has to justify locally for the invariant to hold afterwards. *)
From Coq Require Import List Arith Bool Lia.
From Muscle Require Import Conc.Pool Conc.PoolProofs Conc.RefCnt Conc.RefInv.
Import ListNotations.
Local Open Scope nat_scope.

Section Excl.
Variable K : nat.

Lemma net_le_sum : forall s o t, t < length (s_thr s) -> net o (thr s t) <= sumf (net o) (s_thr s).
Proof. intros. unfold thr. apply (sumf_nth_le _ (net o) (s_thr s) t dthr); auto. Qed.

(* a counting stack slot keeps its target alive, with a positive count *)
Lemma held_live : forall s t i o, inv1 K s -> t < length (s_thr s) ->
  nth i (t_stk (thr s t)) None = Some (o, true) -> is_live (hobj s o) = true /\ 1 <= o_cnt (hobj s o).
Proof.
  intros s t i o I Ht H. pose proof (stk_slot s t i o Ht H) as Hs.
  pose proof (cnt_ge_slots K s o I). pose proof (slots_le_units s o). split; [|lia].
  apply (live_of_units K); auto. lia.
Qed.

Lemma member_live : forall s q j o, inv1 K s ->
  nth j (o_mem (hobj s q)) None = Some (o, true) -> is_live (hobj s o) = true /\ 1 <= o_cnt (hobj s o).
Proof.
  intros s q j o I H. pose proof (mem_slot s q j o H) as Hs.
  pose proof (cnt_ge_slots K s o I). pose proof (slots_le_units s o). split; [|lia].
  apply (live_of_units K); auto. lia.
Qed.

(* an object private to thread u (count 1, held on u's stack) is held by nothing else *)
Section Private.
Variables (s : state) (u i q : nat).
Hypothesis I : inv1 K s.
Hypothesis Hu : u < length (s_thr s).
Hypothesis Hheld : nth i (t_stk (thr s u)) None = Some (q, true).
Hypothesis Hone : o_cnt (hobj s q) = 1.

Lemma private_slots : slots q s = 1 /\ sumf (net q) (s_thr s) = 0.
Proof.
  pose proof (count_bound K s q I). pose proof (stk_slot s u i q Hu Hheld). lia.
Qed.

Lemma private_other_thread : forall t i', t < length (s_thr s) -> t <> u -> nth i' (t_stk (thr s t)) None <> Some (q, true).
Proof.
  intros t i' Ht Hne H. pose proof (stk_stk_slots s t u i' i q Ht Hu Hne H Hheld). destruct private_slots. lia.
Qed.

Lemma private_other_slot : forall i', i' <> i -> nth i' (t_stk (thr s u)) None <> Some (q, true).
Proof.
  intros i' Hne H. pose proof (stk_stk_same_slots s u i' i q Hu Hne H Hheld). destruct private_slots. lia.
Qed.

Lemma private_no_member : forall y j, nth j (o_mem (hobj s y)) None <> Some (q, true).
Proof.
  intros y j H. pose proof (stk_mem_slots s u i y j q Hu Hheld H). destruct private_slots. lia.
Qed.

Lemma private_no_net : forall t, t < length (s_thr s) -> net q (thr s t) = 0.
Proof. intros t Ht. pose proof (net_le_sum s q t Ht). destruct private_slots. lia. Qed.

End Private.

(* a fresh object (live, count 0) is referenced by nothing *)
Lemma zero_no_slots : forall s o, inv1 K s -> o_cnt (hobj s o) = 0 -> slots o s = 0 /\ sumf (net o) (s_thr s) = 0.
Proof. intros s o I H. pose proof (count_bound K s o I). lia. Qed.

Lemma zero_no_stack : forall s o t i, inv1 K s -> o_cnt (hobj s o) = 0 -> t < length (s_thr s) ->
  nth i (t_stk (thr s t)) None <> Some (o, true).
Proof. intros s o t i I H Ht E. pose proof (stk_slot s t i o Ht E). destruct (zero_no_slots s o I H). lia. Qed.

Lemma zero_no_member : forall s o y j, inv1 K s -> o_cnt (hobj s o) = 0 ->
  nth j (o_mem (hobj s y)) None <> Some (o, true).
Proof. intros s o y j I H E. pose proof (mem_slot s y j o E). destruct (zero_no_slots s o I H). lia. Qed.

Lemma zero_no_net : forall s o t, inv1 K s -> o_cnt (hobj s o) = 0 -> t < length (s_thr s) -> net o (thr s t) = 0.
Proof. intros s o t I H Ht. pose proof (net_le_sum s o t Ht). destruct (zero_no_slots s o I H). lia. Qed.

(* a non-live object is referenced by nothing that counts *)
Lemma dead_no_stack : forall s o t i, inv1 K s -> is_live (hobj s o) = false -> t < length (s_thr s) ->
  nth i (t_stk (thr s t)) None <> Some (o, true).
Proof. intros s o t i I H Ht E. destruct (held_live s t i o I Ht E). congruence. Qed.

Lemma dead_no_member : forall s o y j, inv1 K s -> is_live (hobj s o) = false ->
  nth j (o_mem (hobj s y)) None <> Some (o, true).
Proof. intros s o y j I H E. destruct (member_live s y j o I E). congruence. Qed.

Lemma dead_cnt0 : forall s o, inv1 K s -> is_live (hobj s o) = false -> o_cnt (hobj s o) = 0 /\ debts o s = 0.
Proof. intros s o I H. pose proof (i_nolive K s I o H). pose proof (i_count K s I o). lia. Qed.

(* units of one thread's todo are bounded by the total *)
Lemma thr_units_le : forall s o t, t < length (s_thr s) -> thr_units o (thr s t) <= units o s.
Proof.
  intros s o t Ht. unfold units, thr. pose proof (sumf_nth_le _ (thr_units o) (s_thr s) t dthr Ht). lia.
Qed.

Lemma thr_units2_le : forall s o t u, t < length (s_thr s) -> u < length (s_thr s) -> t <> u ->
  thr_units o (thr s t) + thr_units o (thr s u) <= units o s.
Proof.
  intros s o t u Ht Hu Hne. unfold units, thr. pose proof (sumf_nth2_le _ (thr_units o) (s_thr s) t u dthr Ht Hu Hne). lia.
Qed.

Lemma in_todo_unit : forall o a todo, In a todo -> act_unit o a <= sumf (act_unit o) todo.
Proof. intros o a todo. apply sumf_in_le. Qed.

Lemma in_todo_rel : forall o a todo, In a todo -> rel_count o a <= sumf (rel_count o) todo.
Proof. intros o a todo. apply sumf_in_le. Qed.

(* at most one thread releases a given object *)
Lemma rel_unique : forall s o t u n m, inv1 K s -> t < length (s_thr s) -> u < length (s_thr s) -> t <> u ->
  In (ARel o n) (t_todo (thr s t)) -> In (ARel o m) (t_todo (thr s u)) -> False.
Proof.
  intros s o t u n m I Ht Hu Hne H1 H2. pose proof (i_rels K s I o) as HR. unfold rels in HR.
  pose proof (sumf_nth2_le _ (fun t => sumf (rel_count o) (t_todo t)) (s_thr s) t u dthr Ht Hu Hne) as Hle. cbn beta in Hle.
  pose proof (in_todo_rel o _ _ H1) as A. pose proof (in_todo_rel o _ _ H2) as B.
  cbn in A, B. unfold eq1 in A, B. rewrite Nat.eqb_refl in A, B. unfold thr in *.
  destruct (is_releasing (hobj s o)); lia.
Qed.

Lemma rel_releasing : forall s o t n, inv1 K s -> t < length (s_thr s) ->
  In (ARel o n) (t_todo (thr s t)) -> is_releasing (hobj s o) = true.
Proof. intros s o t n I Ht H. destruct (i_acts K s I t _ Ht H) as (A & _). exact A. Qed.

End Excl.

(* ---- a step of one thread ---- *)

Section Step.
Variables N K : nat.

Definition with_thr (s : state) (t : nat) (th' : thread) (h' : list obj) (p' : pool) : state :=
  mkSt h' (upd (s_thr s) t th') p'.

Lemma wt_len : forall s t th' h' p', length (s_thr (with_thr s t th' h' p')) = length (s_thr s).
Proof. intros; cbn; apply upd_length. Qed.

Lemma wt_same : forall s t th' h' p', t < length (s_thr s) -> thr (with_thr s t th' h' p') t = th'.
Proof. intros; unfold thr; cbn. apply nth_upd_same; auto. Qed.

Lemma wt_other : forall s t u th' h' p', u <> t -> thr (with_thr s t th' h' p') u = thr s u.
Proof. intros; unfold thr; cbn. apply nth_upd_other; auto. Qed.

Lemma wt_units : forall s t th' h' p' o, t < length (s_thr s) ->
  units o (with_thr s t th' h' p') + thr_units o (thr s t) + sumf (obj_units o) (s_heap s)
  = units o s + thr_units o th' + sumf (obj_units o) h'.
Proof.
  intros. unfold units, with_thr, thr; cbn.
  pose proof (sumf_upd _ (thr_units o) (s_thr s) t th' dthr H). lia.
Qed.

Lemma wt_debts : forall s t th' h' p' o, t < length (s_thr s) ->
  debts o (with_thr s t th' h' p') + thr_debts o (thr s t) = debts o s + thr_debts o th'.
Proof.
  intros. unfold debts, with_thr, thr; cbn.
  pose proof (sumf_upd _ (thr_debts o) (s_thr s) t th' dthr H). lia.
Qed.

Lemma wt_rels : forall s t th' h' p' o, t < length (s_thr s) ->
  rels o (with_thr s t th' h' p') + sumf (rel_count o) (t_todo (thr s t)) = rels o s + sumf (rel_count o) (t_todo th').
Proof.
  intros. unfold rels, with_thr, thr; cbn.
  pose proof (sumf_upd _ (fun t => sumf (rel_count o) (t_todo t)) (s_thr s) t th' dthr H). cbn beta in H0. lia.
Qed.

(* what another state has to keep for the pending actions of thread u to stay justified: the member slots of the
   objects u holds (and count 1 where u relies on it), a fresh object's single unit, the objects u is releasing *)
Lemma acts_kept : forall s s' u a, inv1 K s -> u < length (s_thr s) -> In a (t_todo (thr s u)) ->
  (forall q i, nth i (t_stk (thr s u)) None = Some (q, true) ->
     o_mem (hobj s' q) = o_mem (hobj s q) /\ (o_cnt (hobj s q) = 1 -> o_cnt (hobj s' q) = 1)) ->
  (forall o, In (AInc o None) (t_todo (thr s u)) -> is_live (hobj s o) = true -> o_cnt (hobj s o) = 0 -> units o s = 1 ->
     is_live (hobj s' o) = true /\ o_cnt (hobj s' o) = 0 /\ units o s' = 1) ->
  (forall o n, In (ARel o n) (t_todo (thr s u)) ->
     o_st (hobj s' o) = o_st (hobj s o) /\ o_mem (hobj s' o) = o_mem (hobj s o) /\ o_pooled (hobj s' o) = o_pooled (hobj s o)) ->
  act_ok s' (t_stk (thr s u)) a.
Proof.
  intros s s' u a I Hu Hin Hheld Hfresh Hrel. pose proof (i_acts K s I u a Hu Hin) as A.
  assert (L : forall l, wloc_ok (s_heap s) (t_stk (thr s u)) l -> wloc_ok (s_heap s') (t_stk (thr s u)) l).
  { intros [i|q j] W; cbn in *; auto. destruct W as (W1 & W2 & (i & W3)). destruct (Hheld q i W3) as (Em & Ec).
    unfold hobj in *. rewrite Em, (Ec W2). eauto. }
  destruct a; cbn [act_ok] in *; auto.
  - destruct src as [[i|q j]|]; cbn [src_ok] in *; auto.
    + destruct A as (A1 & (i & A2)). destruct (Hheld q i A2) as (-> & _). eauto.
    + destruct A as (A1 & A2 & A3). apply Hfresh; auto.
  - destruct A; auto.
  - destruct (Hrel o n Hin) as (E1 & E2 & E3). destruct A as (A1 & A2 & A3).
    unfold is_releasing, processed_none, rel_index in *. rewrite E1, E2, E3. auto.
Qed.

(* ---- the actions of the other threads stay justified ---- *)

(* why thread t may change the count / state of object z *)
Definition touch_c (s : state) (t z : nat) : Prop :=
  (exists i, nth i (t_stk (thr s t)) None = Some (z, true)) \/
  (exists y j, nth j (o_mem (hobj s y)) None = Some (z, true)) \/
  1 <= net z (thr s t) \/
  In (AInc z None) (t_todo (thr s t)) \/
  (is_live (hobj s z) = false /\ (is_releasing (hobj s z) = true -> exists n, In (ARel z n) (t_todo (thr s t)))).

(* why thread t may write member slots of object y *)
Definition touch_m (s : state) (t y : nat) : Prop :=
  (o_cnt (hobj s y) = 1 /\ exists i, nth i (t_stk (thr s t)) None = Some (y, true)) \/
  (exists n, In (ARel y n) (t_todo (thr s t))).

Lemma fresh_units : forall s t z, inv1 K s -> t < length (s_thr s) -> In (AInc z None) (t_todo (thr s t)) ->
  1 <= thr_units z (thr s t).
Proof.
  intros s t z I Ht Hin. pose proof (i_shape K s I t Ht) as Hs. unfold thr_units.
  assert (1 <= sumf (act_unit z) (t_todo (thr s t))); [|lia].
  remember (t_todo (thr s t)) as td eqn:Etd. clear Etd.
  destruct Hs as [fr Hf|fr l v Hf|q src l|q src l|l|l v|a Ha].
  - exfalso. rewrite forallb_forall in Hf. specialize (Hf _ Hin). discriminate.
  - exfalso. apply in_app_or in Hin. destruct Hin as [Hin|[Hin|[]]]; [|discriminate].
    rewrite forallb_forall in Hf. specialize (Hf _ Hin). discriminate.
  - destruct Hin as [Hin|[Hin|[]]]; [|discriminate]. inversion Hin; subst. cbn. rewrite Nat.eqb_refl. lia.
  - destruct Hin as [Hin|[Hin|[Hin|[]]]]; try discriminate. inversion Hin; subst. cbn. rewrite Nat.eqb_refl. lia.
  - destruct Hin as [Hin|[]]; discriminate.
  - destruct Hin as [Hin|[Hin|[]]]; discriminate.
  - destruct Hin as [Hin|[]]. subst a. cbn in Ha. tauto.
Qed.

Lemma net_units : forall s t z, inv1 K s -> t < length (s_thr s) -> 1 <= net z (thr s t) -> 1 <= units z s.
Proof.
  intros s t z I Ht H. pose proof (thr_units_le s z t Ht). unfold thr_units, net in *. lia.
Qed.

Section Others.
Variables (s : state) (t : nat) (th' : thread) (h' : list obj) (p' : pool).
Let s' := with_thr s t th' h' p'.
Hypothesis I : inv1 K s.
Hypothesis Ht : t < length (s_thr s).
Hypothesis Hcount' : forall o, units o s' = o_cnt (hobj s' o) + debts o s'.
Hypothesis Hc : forall z, touch_c s t z \/
  (o_cnt (hobj s' z) = o_cnt (hobj s z) /\ o_st (hobj s' z) = o_st (hobj s z) /\ o_pooled (hobj s' z) = o_pooled (hobj s z)).
Hypothesis Hm : forall y, touch_m s t y \/ o_mem (hobj s' y) = o_mem (hobj s y).
Hypothesis Hd : forall o, touch_c s t o \/ thr_debts o th' = thr_debts o (thr s t).

(* an object private to another thread is not count-touched by t *)
Lemma private_untouched : forall u i q, u < length (s_thr s) -> u <> t ->
  nth i (t_stk (thr s u)) None = Some (q, true) -> o_cnt (hobj s q) = 1 -> ~ touch_c s t q.
Proof.
  intros u i q Hu Hne Hheld Hone [(i' & H)|[(y & j & H)|[H|[H|(H & _)]]]].
  - apply (private_other_thread K s u i q I Hu Hheld Hone t i' Ht (not_eq_sym Hne) H).
  - apply (private_no_member K s u i q I Hu Hheld Hone y j H).
  - pose proof (private_no_net K s u i q I Hu Hheld Hone t Ht). lia.
  - pose proof (i_acts K s I t _ Ht H) as A. cbn in A. destruct A as (_ & A & _). lia.
  - destruct (held_live K s u i q I Hu Hheld). congruence.
Qed.

Lemma held_untouched_m : forall u i q, u < length (s_thr s) -> u <> t ->
  nth i (t_stk (thr s u)) None = Some (q, true) -> ~ touch_m s t q.
Proof.
  intros u i q Hu Hne Hheld [(Hone & i' & H)|(n & H)].
  - apply (private_other_thread K s t i' q I Ht H Hone u i Hu Hne Hheld).
  - pose proof (rel_releasing K s q t n I Ht H). destruct (held_live K s u i q I Hu Hheld).
    unfold is_live, is_releasing in *. destruct (o_st (hobj s q)); discriminate.
Qed.

Lemma fresh_untouched : forall u o, u < length (s_thr s) -> u <> t -> In (AInc o None) (t_todo (thr s u)) ->
  is_live (hobj s o) = true -> o_cnt (hobj s o) = 0 -> units o s = 1 -> ~ touch_c s t o.
Proof.
  intros u o Hu Hne Hin Hl Hz Hun [(i' & H)|[(y & j & H)|[H|[H|(H & _)]]]].
  - apply (zero_no_stack K s o t i' I Hz Ht H).
  - apply (zero_no_member K s o y j I Hz H).
  - pose proof (zero_no_net K s o t I Hz Ht). lia.
  - pose proof (fresh_units s t o I Ht H). pose proof (fresh_units s u o I Hu Hin).
    pose proof (thr_units2_le s o t u Ht Hu (not_eq_sym Hne)). lia.
  - congruence.
Qed.

Lemma releasing_untouched : forall u o n, u < length (s_thr s) -> u <> t -> In (ARel o n) (t_todo (thr s u)) ->
  ~ touch_c s t o /\ ~ touch_m s t o.
Proof.
  intros u o n Hu Hne Hin. pose proof (rel_releasing K s o u n I Hu Hin) as HR.
  assert (Hnl : is_live (hobj s o) = false) by (apply releasing_not_live; auto).
  split.
  - intros [(i' & H)|[(y & j & H)|[H|[H|(H & H2)]]]].
    + apply (dead_no_stack K s o t i' I Hnl Ht H).
    + apply (dead_no_member K s o y j I Hnl H).
    + pose proof (net_units s t o I Ht H). pose proof (i_nolive K s I o Hnl). lia.
    + pose proof (i_acts K s I t _ Ht H) as A. cbn in A. destruct A as (A & _). congruence.
    + destruct (H2 HR) as (m & Hm2). apply (rel_unique K s o t u m n I Ht Hu (not_eq_sym Hne) Hm2 Hin).
  - intros [(Hone & i' & H)|(m & H)].
    + apply (dead_no_stack K s o t i' I Hnl Ht H).
    + apply (rel_unique K s o t u m n I Ht Hu (not_eq_sym Hne) H Hin).
Qed.

Lemma others_kept : forall u a, u < length (s_thr s) -> u <> t -> In a (t_todo (thr s u)) -> act_ok s' (t_stk (thr s u)) a.
Proof.
  intros u a Hu Hne Hin. apply acts_kept; auto.
  - intros q i Hq. split.
    + destruct (Hm q) as [Hx|E]; auto. exfalso. eapply held_untouched_m; eauto.
    + intros Hone. destruct (Hc q) as [Hx|(E & _)]; [exfalso; eapply private_untouched; eauto|]. congruence.
  - intros o Hin2 W1 W2 W3. assert (Hnt : ~ touch_c s t o) by (eapply fresh_untouched; eauto).
    destruct (Hc o) as [Hx|(E1 & E2 & E3)]; [tauto|].
    split; [unfold is_live in *; rewrite E2; auto|]. split; [congruence|].
    rewrite Hcount'. destruct (Hd o) as [Hx|E]; [tauto|].
    pose proof (wt_debts s t th' h' p' o Ht) as H. fold s' in H. pose proof (i_count K s I o). lia.
  - intros o n Hin2. destruct (releasing_untouched u o n Hu Hne Hin2) as (N1 & N2).
    destruct (Hc o) as [Hx|(E1 & E2 & E3)]; [tauto|]. destruct (Hm o) as [Hx|E]; [tauto|]. auto.
Qed.

End Others.

(* ---- the invariant after a step of t ---- *)

(* everything is asked in terms of what thread t and the heap held before and after the step; no sum over the
   state after the step has to be computed by a caller *)
Lemma frame : forall s t th' h' p',
  inv1 K s -> t < length (s_thr s) -> length h' = length (s_heap s) ->
  (forall z, thr_units z th' + sumf (obj_units z) h' + o_cnt (hobj s z) + thr_debts z (thr s t)
             = thr_units z (thr s t) + sumf (obj_units z) (s_heap s) + o_cnt (get_obj h' z) + thr_debts z th') ->
  (forall z, is_live (get_obj h' z) = false ->
             units z s + thr_units z th' + sumf (obj_units z) h' = thr_units z (thr s t) + sumf (obj_units z) (s_heap s)) ->
  (forall z, z < length (s_heap s) -> length (o_mem (get_obj h' z)) = length (o_mem (hobj s z)) /\ quiet (get_obj h' z)) ->
  shape (t_todo th') ->
  (forall a, In a (t_todo th') -> act_ok (with_thr s t th' h' p') (t_stk th') a) ->
  (forall z, touch_c s t z \/
     (o_cnt (get_obj h' z) = o_cnt (hobj s z) /\ o_st (get_obj h' z) = o_st (hobj s z) /\ o_pooled (get_obj h' z) = o_pooled (hobj s z))) ->
  (forall y, touch_m s t y \/ o_mem (get_obj h' y) = o_mem (hobj s y)) ->
  (forall z, touch_c s t z \/ thr_debts z th' = thr_debts z (thr s t)) ->
  (forall z, sumf (rel_count z) (t_todo th') + (if is_releasing (hobj s z) then 1 else 0)
             = sumf (rel_count z) (t_todo (thr s t)) + (if is_releasing (get_obj h' z) then 1 else 0)) ->
  (forall z, z < length (s_heap s) ->
             o_births (get_obj h' z) = o_deaths (get_obj h' z) + (if is_live (get_obj h' z) then 1 else 0)) ->
  inv1 K (with_thr s t th' h' p').
Proof.
  intros s t th' h' p' I Ht Hlen Hcount Hnl Hmem Hsh Hacts Hc Hm Hd Hrels Hgh.
  assert (HU := fun z => wt_units s t th' h' p' z Ht). assert (HD := fun z => wt_debts s t th' h' p' z Ht).
  assert (Hcount' : forall z, units z (with_thr s t th' h' p') = o_cnt (hobj (with_thr s t th' h' p') z) + debts z (with_thr s t th' h' p')).
  { intros z. change (hobj (with_thr s t th' h' p') z) with (get_obj h' z).
    pose proof (i_count K s I z). specialize (Hcount z). specialize (HU z). specialize (HD z). lia. }
  constructor; auto.
  - intros z Hz. specialize (Hnl z Hz). specialize (HU z). lia.
  - intros z Hz. cbn [s_heap with_thr] in Hz. rewrite Hlen in Hz. destruct (Hmem z Hz) as (A & B). destruct (i_mem K s I z Hz) as (C & _).
    split; [|exact B]. change (hobj (with_thr s t th' h' p') z) with (get_obj h' z). congruence.
  - intros u Hu. rewrite wt_len in Hu. destruct (Nat.eq_dec u t) as [->|Hne].
    + rewrite wt_same; auto.
    + rewrite wt_other; auto. apply (i_shape K s I); auto.
  - intros u a Hu Hin. rewrite wt_len in Hu. destruct (Nat.eq_dec u t) as [->|Hne].
    + rewrite wt_same in *; auto.
    + rewrite wt_other in *; auto.
      apply (others_kept s t th' h' p'); auto.
  - intros z. pose proof (wt_rels s t th' h' p' z Ht). pose proof (i_rels K s I z). specialize (Hrels z).
    change (hobj (with_thr s t th' h' p') z) with (get_obj h' z).
    destruct (is_releasing (hobj s z)), (is_releasing (get_obj h' z)); lia.
  - intros z Hz. cbn [s_heap with_thr] in Hz. rewrite Hlen in Hz. apply (Hgh z Hz).
Qed.

End Step.
