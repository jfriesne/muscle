(* C10 -- further consequences of the invariant: an object whose count reached zero is being released by exactly
   one thread and is referenced by nothing; a created / obtained object has one owner until its first increment. *)
From Coq Require Import List Arith Bool Lia.
From Muscle Require Import Conc.RefCnt Conc.RefInv Conc.RefExcl Conc.RefProofs.
Import ListNotations.
Local Open Scope nat_scope.

Section More.
Variables N K : nat.

Lemma rel_count_in : forall o todo, 0 < sumf (rel_count o) todo -> exists n, In (ARel o n) todo.
Proof.
  intros o todo H. destruct (sumf_pos_in _ _ _ H) as (a & Hin & Hp).
  destruct a; cbn in Hp; try lia. unfold eq1 in Hp. destruct (o0 =? o) eqn:E; [|lia]. apply Nat.eqb_eq in E. subst. eauto.
Qed.

(* once the count of an object has reached zero through a releasing decrement, some thread is carrying
   out its release (and, by [rel_unique], only one): the release cannot be forgotten or duplicated *)
Theorem release_in_progress : forall s0 s o, inv1 K s0 -> progs_ok s0 -> reachable N K s0 s ->
  is_releasing (hobj s o) = true ->
  exists t n, t < length (s_thr s) /\ In (ARel o n) (t_todo (thr s t)) /\
              forall u m, u < length (s_thr s) -> In (ARel o m) (t_todo (thr s u)) -> u = t.
Proof.
  intros s0 s o I0 P0 H Hr. destruct (reachable_inv1 N K s0 s I0 P0 H) as (I & _).
  pose proof (i_rels K s I o) as HR. rewrite Hr in HR. unfold rels in HR.
  destruct (sumf_pos_in _ (fun t => sumf (rel_count o) (t_todo t)) (s_thr s)) as (th & Hin & Hp); [lia|].
  apply In_nth with (d := dthr) in Hin. destruct Hin as (t & Ht & Et).
  destruct (rel_count_in o (t_todo th) Hp) as (n & Hn).
  exists t, n. split; auto. split; [unfold thr; rewrite Et; auto|].
  intros u m Hu Hm. destruct (Nat.eq_dec u t) as [->|Hne]; auto. exfalso.
  apply (rel_unique K s o t u n m I Ht Hu (not_eq_sym Hne)); auto. unfold thr. rewrite Et. auto.
Qed.

(* what an object that is being released looks like: count zero, no reference to it anywhere *)
Theorem releasing_is_unreferenced : forall s0 s o, inv1 K s0 -> progs_ok s0 -> reachable N K s0 s ->
  is_releasing (hobj s o) = true -> o_cnt (hobj s o) = 0 /\ units o s = 0 /\ debts o s = 0.
Proof.
  intros s0 s o I0 P0 H Hr. destruct (reachable_inv1 N K s0 s I0 P0 H) as (I & _).
  assert (Hnl : is_live (hobj s o) = false) by (apply releasing_not_live; auto).
  pose proof (i_nolive K s I o Hnl). pose proof (i_count K s I o). lia.
Qed.

(* an object just created or just obtained from the pool, before its first increment: it is live, its
   count is zero, and the one reference unit in the whole system that designates it is the pending
   store of the thread that created / obtained it -- one owner, nobody else *)
Theorem fresh_single_owner : forall s0 s t o, inv1 K s0 -> progs_ok s0 -> reachable N K s0 s ->
  t < length (s_thr s) -> In (AInc o None) (t_todo (thr s t)) ->
  is_live (hobj s o) = true /\ o_cnt (hobj s o) = 0 /\ units o s = 1 /\ slots o s = 0 /\
  forall u, u < length (s_thr s) -> u <> t -> thr_units o (thr s u) = 0.
Proof.
  intros s0 s t o I0 P0 H Ht Hin. destruct (reachable_inv1 N K s0 s I0 P0 H) as (I & _).
  pose proof (i_acts K s I t _ Ht Hin) as A. cbn in A. destruct A as (A1 & A2 & A3).
  split; auto. split; auto. split; auto.
  destruct (zero_no_slots K s o I A2) as (Z1 & Z2). split; auto.
  intros u Hu Hne. pose proof (fresh_units K s t o I Ht Hin) as F.
  pose proof (thr_units2_le s o t u Ht Hu (not_eq_sym Hne)). lia.
Qed.

End More.
