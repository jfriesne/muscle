(* C10 -- no leaks: the reference graph (counting member references) of every reachable state is acyclic,
   because a reference is only ever stored into an object nobody else refers to and never points to
   that object itself; and in an acyclic graph nothing can keep itself alive: once no thread holds a
   counting reference or has work pending, every object that is still live hangs (directly or
   transitively) from an object with count zero -- so if there is none (no reference was ever
   converted to non-counting, which by contract leaves an unreleased object behind), every object
   has been released. *)
From Coq Require Import List Arith Bool Lia.
From Muscle Require Import Conc.Pool Conc.PoolProofs Conc.RefCnt Conc.RefInv Conc.RefExcl Conc.RefActs Conc.RefActs3 Conc.RefProofs.
Import ListNotations.
Local Open Scope nat_scope.

Section Acyc.
Variables N K : nat.

Definition edge (s : state) (a b : nat) : Prop := exists j, nth j (o_mem (hobj s a)) None = Some (b, true).

Inductive path (s : state) : nat -> nat -> Prop :=
| p_one : forall a b, edge s a b -> path s a b
| p_cons : forall a b c, edge s a b -> path s b c -> path s a c.

Definition acyclic (s : state) : Prop := forall a, ~ path s a a.

Lemma path_last : forall s a b, path s a b -> exists x, edge s x b.
Proof. induction 1 as [a b H|a b c H Hp IH]; eauto. Qed.

Lemma path_sub : forall s s', (forall a b, edge s' a b -> edge s a b) -> forall a b, path s' a b -> path s a b.
Proof. intros s s' Hsub a b Hp. induction Hp as [a b H|a b c H Hp IH]; [apply p_one; auto|eapply p_cons; eauto]. Qed.

Lemma path_app_edge : forall s a b c, path s a b -> edge s b c -> path s a c.
Proof. induction 1 as [a b H|a b c' H Hp IH]; intros H2; [eapply p_cons; [eauto|apply p_one; auto]|eapply p_cons; eauto]. Qed.

(* adding edges whose sources have no incoming edge afterwards keeps the graph acyclic *)
Lemma acyclic_add : forall s s' (Q : nat -> Prop),
  (forall a b, edge s' a b -> edge s a b \/ Q a) ->
  (forall q x, Q q -> ~ edge s' x q) ->
  acyclic s -> acyclic s'.
Proof.
  intros s s' Q Hnew Hnoin Ha.
  assert (G : forall a b, path s' a b -> path s a b \/ exists q, Q q /\ (q = a \/ path s' a q)).
  { induction 1 as [a b H|a b c H Hp IH].
    - destruct (Hnew a b H) as [E|Hq]; [left; apply p_one; auto|right; exists a; auto].
    - destruct (Hnew a b H) as [E|Hq]; [|right; exists a; auto].
      destruct IH as [P|(q & Hq & [->|P])].
      + left. eapply p_cons; eauto.
      + right. exists b. split; auto. right. apply p_one; auto.
      + right. exists q. split; auto. right. eapply p_cons; eauto. }
  intros a Hp. destruct (G a a Hp) as [P|(q & Hq & [->|P])].
  - apply (Ha a P).
  - destruct (path_last _ _ _ Hp) as (x & Hx). apply (Hnoin a x Hq Hx).
  - destruct (path_last _ _ _ P) as (x & Hx). apply (Hnoin q x Hq Hx).
Qed.

(* ---- quiescent states ---- *)

Definition quiescent (s : state) : Prop :=
  forall th, In th (s_thr s) -> t_todo th = [] /\ forall o, refs_in o (t_stk th) = 0.

Lemma refs_in_pos : forall o l, 0 < refs_in o l -> exists j, nth j l None = Some (o, true).
Proof.
  induction l as [|r t IH]; unfold refs_in; cbn; intros H; [lia|].
  destruct (cref o r) eqn:E.
  - destruct IH as (j & Hj); [unfold refs_in; lia|]. exists (S j). auto.
  - exists 0. cbn. destruct r as [[q [|]]|]; cbn in E; try discriminate. unfold eq1 in *.
    destruct (q =? o) eqn:Eq; [|discriminate]. apply Nat.eqb_eq in Eq. subst. reflexivity.
Qed.

(* in a quiescent state a live object with a positive count is referenced by a live object *)
Lemma live_pred : forall s o, inv1 K s -> quiescent s -> is_live (hobj s o) = true -> 1 <= o_cnt (hobj s o) ->
  exists a, is_live (hobj s a) = true /\ edge s a o.
Proof.
  intros s o I Q Hl Hc. pose proof (i_count K s I o) as HC.
  assert (Hthr : sumf (thr_units o) (s_thr s) = 0).
  { apply sumf_zero. intros th Hin. destruct (Q th Hin) as (E1 & E2). unfold thr_units. rewrite E1, E2. reflexivity. }
  unfold units in HC. rewrite Hthr in HC.
  destruct (sumf_pos_in _ (obj_units o) (s_heap s)) as (ob & Hin & Hp); [lia|].
  apply In_nth with (d := dobj) in Hin. destruct Hin as (a & Ha & Ea).
  unfold obj_units in Hp. destruct (refs_in_pos o (o_mem ob) Hp) as (j & Hj).
  assert (Hob : hobj s a = ob) by exact Ea.
  exists a. split; [|exists j; rewrite Hob; exact Hj].
  destruct (is_live (hobj s a)) eqn:El; auto. exfalso.
  destruct (i_mem K s I a Ha) as (_ & Hq). unfold quiet in Hq. unfold is_live in El. rewrite Hob in *.
  destruct (o_st ob) eqn:Est; try discriminate.
  - (* releasing: some thread would have to be carrying the release *)
    pose proof (i_rels K s I a) as HR. unfold is_releasing in HR. rewrite Hob, Est in HR. unfold rels in HR.
    assert (Z : sumf (fun t => sumf (rel_count a) (t_todo t)) (s_thr s) = 0).
    { apply sumf_zero. intros th Hin. destruct (Q th Hin) as (E1 & _). rewrite E1. reflexivity. }
    lia.
  - pose proof (all_none_refs o _ Hq). unfold refs_in in *. lia.
  - pose proof (all_none_refs o _ Hq). unfold refs_in in *. lia.
Qed.

(* in a quiescent state every live object is, or hangs from, a live object whose count is zero.  Follow
   predecessors: either such a root turns up, or the chain of distinct live ancestors outgrows the heap *)
Theorem live_root : forall s o, inv1 K s -> acyclic s -> quiescent s -> is_live (hobj s o) = true ->
  exists r, is_live (hobj s r) = true /\ o_cnt (hobj s r) = 0 /\ (r = o \/ path s r o).
Proof.
  intros s o I A Q Hl.
  assert (G : forall n, (exists r, is_live (hobj s r) = true /\ o_cnt (hobj s r) = 0 /\ (r = o \/ path s r o)) \/
              exists x0 rest, length rest = n /\ NoDup (x0 :: rest) /\
                (forall x, In x (x0 :: rest) -> is_live (hobj s x) = true) /\ (forall y, In y rest -> path s x0 y) /\
                (x0 = o \/ path s x0 o)).
  { induction n as [|n [IH|(x0 & rest & Hlen & Hnd & Hlive & Hpath & Hto)]]; auto.
    - right. exists o, []. split; auto. split; [constructor; [intros []|constructor]|].
      split; [intros x [<-|[]]; auto|]. split; [intros y []|auto].
    - pose proof (Hlive x0 (or_introl eq_refl)) as Hl0. destruct (o_cnt (hobj s x0)) eqn:Ec; [left; exists x0; auto|right].
      destruct (live_pred s x0 I Q Hl0) as (a & Hla & Hea); [lia|].
      exists a, (x0 :: rest). split; [cbn; lia|]. split; [|split; [|split]].
      + constructor; auto. intros [E|Hin].
        * rewrite E in Hea. apply (A a). apply p_one; auto.
        * apply (A x0). eapply path_app_edge; eauto.
      + intros x [<-|Hin]; auto.
      + intros y [<-|Hin]; [apply p_one; auto|]. eapply p_cons; eauto.
      + right. destruct Hto as [->|P]; [apply p_one; auto|eapply p_cons; eauto]. }
  destruct (G (length (s_heap s))) as [H|(x0 & rest & Hlen & Hnd & Hlive & _)]; auto. exfalso.
  assert (Hincl : incl (x0 :: rest) (seq 0 (length (s_heap s)))).
  { intros x Hx. apply in_seq. specialize (Hlive x Hx). apply live_lt in Hlive. lia. }
  pose proof (NoDup_incl_length Hnd Hincl) as Hle. rewrite seq_length in Hle. cbn in Hle. lia.
Qed.

(* leak-freedom: acyclic graph, nothing pending, no thread holds a counting reference, and no live object
   is sitting at count zero (which only a stop-counting conversion can cause): then nothing is live,
   i.e. every object has been released *)
Theorem leak_free : forall s, inv1 K s -> acyclic s -> quiescent s ->
  (forall o, is_live (hobj s o) = true -> 1 <= o_cnt (hobj s o)) ->
  forall o, is_live (hobj s o) = false.
Proof.
  intros s I A Q Hpos o. destruct (is_live (hobj s o)) eqn:Hl; auto.
  destruct (live_root s o I A Q Hl) as (r & Hr & Hc & _). specialize (Hpos r Hr). lia.
Qed.


(* ---- how a step changes member slots ---- *)

Definition mem_le (m' m : list ref) : Prop := forall j b, nth j m' None = Some (b, true) -> nth j m None = Some (b, true).

Lemma mem_le_refl : forall m, mem_le m m.
Proof. intros m j b H; auto. Qed.

Definition heap_le (h' h : list obj) : Prop := forall y, mem_le (o_mem (get_obj h' y)) (o_mem (get_obj h y)).

Lemma heap_le_refl : forall h, heap_le h h.
Proof. intros h y. apply mem_le_refl. Qed.

Lemma heap_le_trans : forall a b c, heap_le a b -> heap_le b c -> heap_le a c.
Proof. intros a b c H1 H2 y j x H. apply H2. apply H1. auto. Qed.

Lemma upd_keepmem : forall h x ob', o_mem ob' = o_mem (get_obj h x) -> heap_le (upd h x ob') h.
Proof.
  intros h x ob' E y. destruct (Nat.eq_dec x y) as [->|Hne].
  - destruct (lt_dec y (length h)) as [Hl|Hl]; [rewrite get_upd_same by auto; rewrite E|rewrite upd_oob by lia]; apply mem_le_refl.
  - rewrite get_upd_other by auto. apply mem_le_refl.
Qed.

Lemma upd_slot_le : forall h q j v, counting v = false ->
  heap_le (upd h q (set_mem (get_obj h q) (upd (o_mem (get_obj h q)) j v))) h.
Proof.
  intros h q j v Hv y. destruct (Nat.eq_dec q y) as [->|Hne]; [|rewrite get_upd_other by auto; apply mem_le_refl].
  destruct (lt_dec y (length h)) as [Hl|Hl]; [rewrite get_upd_same by auto|rewrite upd_oob by lia; apply mem_le_refl].
  cbn [o_mem set_mem]. intros j' b H. destruct (Nat.eq_dec j j') as [->|Hj]; [|rewrite nth_upd_other in H by auto; auto].
  destruct (lt_dec j' (length (o_mem (get_obj h y)))) as [Hlj|Hlj]; [|rewrite upd_oob in H by lia; auto].
  rewrite nth_upd_same in H by auto. subst v. discriminate.
Qed.

Lemma write_le : forall h stk l v h1 stk1, write_slot h stk l v = (h1, stk1) -> counting v = false -> heap_le h1 h.
Proof.
  intros h stk [i|q j] v h1 stk1 H Hv; cbn in H; inversion H; subst; [apply heap_le_refl|apply upd_slot_le; auto].
Qed.

Lemma app_le : forall h new, (forall ob, In ob new -> all_none (o_mem ob) = true) -> heap_le (h ++ new) h.
Proof.
  intros h new Hn y j b H. destruct (lt_dec y (length h)) as [Hl|Hl].
  - rewrite get_app_old in H by auto. auto.
  - exfalso. rewrite get_app_new in H by lia.
    destruct (lt_dec (y - length h) (length new)) as [Hl2|Hl2].
    + assert (Hin : In (nth (y - length h) new dobj) new) by (apply nth_In; auto).
      specialize (Hn _ Hin). unfold all_none in Hn. rewrite forallb_forall in Hn.
      destruct (lt_dec j (length (o_mem (nth (y - length h) new dobj)))) as [Hj|Hj].
      * specialize (Hn _ (nth_In _ None Hj)). rewrite H in Hn. discriminate.
      * rewrite (nth_overflow (o_mem (nth (y - length h) new dobj))) in H by lia. discriminate.
    + rewrite (nth_overflow new) in H by lia. cbn in H. destruct j; discriminate.
Qed.

Lemma inc_le : forall h o h', inc_obj h o = Some h' -> heap_le h' h.
Proof. intros h o h' H. unfold inc_obj in H. destruct (is_live (get_obj h o)); inversion H; subst. apply upd_keepmem. reflexivity. Qed.

Lemma dec_le : forall h q h' z, dec_obj h q = Some (h', z) -> heap_le h' h.
Proof.
  intros h q h' z H. unfold dec_obj in H. destruct (is_live (get_obj h q) && (0 <? o_cnt (get_obj h q))); [|discriminate].
  destruct (o_cnt (get_obj h q) - 1 =? 0); inversion H; subst; apply upd_keepmem; reflexivity.
Qed.

Lemma deckeep_le : forall h q h', dec_keep h q = Some h' -> heap_le h' h.
Proof.
  intros h q h' H. unfold dec_keep in H. destruct (is_live (get_obj h q) && (0 <? o_cnt (get_obj h q))); inversion H; subst.
  apply upd_keepmem. reflexivity.
Qed.

Lemma set_range_le : forall h base n, heap_le (set_range h base n (fun ob => set_st ob Dead)) h.
Proof.
  intros h base n y. rewrite set_range_get by auto. destruct ((base <=? y) && (y <? base + n)); apply mem_le_refl.
Qed.

Definition stores_counting_member (a : act) : Prop :=
  match a with AStore (RMem _ _) (Some (_, true)) => True | _ => False end.

Lemma do_act_le : forall h p stk a rest h' stk' todo' p' ev, ~ stores_counting_member a ->
  do_act N K h p stk a rest = (h', stk', todo', p', ev) -> heap_le h' h.
Proof.
  intros h p stk a rest h' stk' todo' p' ev Hns H. destruct a; cbn [do_act] in H.
  - (* AInc *) destruct (inc_obj h o) eqn:E; inversion H; subst; [eapply inc_le; eauto|apply heap_le_refl].
  - (* ADec *) destruct (dec_obj h o) as [[h2 [|]]|] eqn:E; inversion H; subst; first [eapply dec_le; eassumption|apply heap_le_refl].
  - (* ADecKeep *) destruct (dec_keep h o) eqn:E; inversion H; subst; [eapply deckeep_le; eauto|apply heap_le_refl].
  - (* ATake *) destruct (write_slot h stk l None) as [h1 stk1] eqn:E. inversion H; subst. eapply write_le; eauto.
  - (* AUntag *) destruct (read_slot h stk l) as [[q [|]]|]; try (inversion H; subst; apply heap_le_refl).
    destruct (write_slot h stk l (Some (q, false))) as [h1 stk1] eqn:E. inversion H; subst. eapply write_le; eauto.
  - (* AStore *) destruct (write_slot h stk l v) as [h1 stk1] eqn:E. inversion H; subst.
    destruct l as [i|q j]; [cbn in E; inversion E; subst; apply heap_le_refl|].
    destruct v as [[b [|]]|]; [exfalso; apply Hns; exact Logic.I| |]; eapply write_le; eauto.
  - (* ARel *) destruct (negb (is_releasing (get_obj h o))); [inversion H; subst; apply heap_le_refl|].
    destruct (n <? length (o_mem (get_obj h o))).
    + inversion H; subst. apply upd_slot_le. reflexivity.
    + destruct (o_pooled (get_obj h o)).
      * destruct (pool_release N p o) as [p2 [sd|]]; inversion H; subst; apply upd_keepmem; reflexivity.
      * inversion H; subst. apply upd_keepmem. reflexivity.
  - (* APoolObt *) destruct (pool_obtain N (length h) p) as [[p2 o] created].
    set (h1 := match created with Some _ => h ++ repeat (fresh_obj K true Pooled) N | None => h end) in *.
    assert (L1 : heap_le h1 h).
    { unfold h1. destruct created; [|apply heap_le_refl]. apply app_le. intros ob Hob. apply repeat_spec in Hob. subst.
      apply all_none_repeat. }
    destruct (is_pooled_st (get_obj h1 o) && is_default (get_obj h1 o)); inversion H; subst; auto.
    eapply heap_le_trans; [|exact L1]. apply upd_keepmem. reflexivity.
  - (* ADrain *) destruct (pool_drain N p) as [p2 dels]. inversion H; subst. apply heap_le_refl.
  - (* ASlabDel *) destruct (range_all h (sl_base s) N is_pooled_st); inversion H; subst; [apply set_range_le|apply heap_le_refl].
Qed.


Lemma edge_le : forall s s', heap_le (s_heap s') (s_heap s) -> forall a b, edge s' a b -> edge s a b.
Proof. intros s s' H a b (j & Hj). exists j. apply (H a j b Hj). Qed.

Lemma acyclic_le : forall s s', heap_le (s_heap s') (s_heap s) -> acyclic s -> acyclic s'.
Proof. intros s s' H A a Hp. apply (A a). eapply path_sub; [apply edge_le; eauto|eauto]. Qed.

(* writes into member slots of objects without incoming edges, none of the new values pointing into the written set *)
Lemma acyclic_writes : forall s s' (W : nat -> Prop),
  (forall a, W a \/ ~ W a) ->
  (forall w x, W w -> ~ edge s x w) ->
  (forall y, ~ W y -> mem_le (o_mem (hobj s' y)) (o_mem (hobj s y))) ->
  (forall x j b, W x -> nth j (o_mem (hobj s' x)) None = Some (b, true) -> edge s x b \/ ~ W b) ->
  acyclic s -> acyclic s'.
Proof.
  intros s s' W Hdec Hnoin Hout Hin A. apply (acyclic_add s s' W); auto.
  - intros a b (j & Hj). destruct (Hdec a) as [Wa|Wa]; auto. left. exists j. apply (Hout a Wa j b Hj).
  - intros q x Wq (j & Hj). destruct (Hdec x) as [Wx|Wx].
    + destruct (Hin x j q Wx Hj) as [E|E]; [apply (Hnoin q x Wq E)|auto].
    + apply (Hnoin q x Wq). exists j. apply (Hout x Wx j q Hj).
Qed.

Lemma rloc_eqb_false : forall a b, rloc_eqb a b = false -> a <> b.
Proof.
  intros [i|q j] [i'|q' j'] H E; inversion E; subst; cbn in H.
  - rewrite Nat.eqb_refl in H. discriminate.
  - rewrite !Nat.eqb_refl in H. discriminate.
Qed.

Lemma rloc_eqb_true : forall a b, rloc_eqb a b = true -> a = b.
Proof.
  intros [i|q j] [i'|q' j'] H; cbn in H; try discriminate.
  - apply Nat.eqb_eq in H. subst. reflexivity.
  - apply andb_true_iff in H. destruct H as (H1 & H2). apply Nat.eqb_eq in H1, H2. subst. reflexivity.
Qed.

(* an object private to thread t has no incoming edge *)
Lemma private_no_in : forall s t stk l, inv1 K s -> t < length (s_thr s) -> t_stk (thr s t) = stk ->
  wloc_ok (s_heap s) stk l -> forall w x, mem_of l w = true -> ~ edge s x w.
Proof.
  intros s t stk [i|q j] I Ht Es W w x Hw (j0 & Hj); cbn in Hw; [discriminate|]. apply Nat.eqb_eq in Hw. subst w.
  cbn in W. destruct W as (_ & Hc & (i & Hi)). rewrite <- Es in Hi.
  apply (private_no_member K s t i q I Ht Hi Hc x j0 Hj).
Qed.


(* ---- the two kinds of steps that add edges ---- *)

Lemma store_acyclic : forall s t stk q j p rest prog h1 stk1, inv1 K s -> t < length (s_thr s) ->
  thr s t = mkThr stk (AStore (RMem q j) (Some (p, true)) :: rest) prog ->
  write_slot (s_heap s) stk (RMem q j) (Some (p, true)) = (h1, stk1) ->
  forall s', s_heap s' = h1 -> acyclic s -> acyclic s'.
Proof.
  intros s t stk q j p rest prog h1 stk1 I Ht E Hw s' Hs' A.
  assert (Es : t_stk (thr s t) = stk) by (rewrite E; auto).
  pose proof (i_acts K s I t (AStore (RMem q j) (Some (p, true))) Ht) as Hok. rewrite E in Hok. specialize (Hok (or_introl eq_refl)).
  cbn [act_ok t_stk] in Hok. destruct Hok as (W & NS).
  destruct (wloc_valid K s t stk (RMem q j) I Ht Es W) as ((Hq & Hj) & _).
  cbn in Hw. injection Hw as Eh Est. rewrite <- Eh in Hs'. clear Eh Est.
  apply (acyclic_writes s s' (fun a => a = q)); auto.
  - intros a. destruct (Nat.eq_dec a q); auto.
  - intros w x -> . apply (private_no_in s t stk (RMem q j) I Ht Es W q x). cbn. apply Nat.eqb_refl.
  - intros y Hy. unfold hobj. rewrite Hs'. rewrite get_upd_other by auto. apply mem_le_refl.
  - intros x j0 b -> Hv. unfold hobj in Hv. rewrite Hs' in Hv. rewrite get_upd_same in Hv by auto. cbn [o_mem set_mem] in Hv.
    destruct (Nat.eq_dec j j0) as [->|Hne].
    + rewrite nth_upd_same in Hv by auto. inversion Hv; subst. right. intros ->. apply NS. reflexivity.
    + rewrite nth_upd_other in Hv by auto. left. exists j0. exact Hv.
Qed.

Lemma swap_acyclic : forall s t stk ra rb h1 stk1 h2 stk2, inv1 K s -> t < length (s_thr s) -> t_stk (thr s t) = stk ->
  wloc_ok (s_heap s) stk ra -> wloc_ok (s_heap s) stk rb ->
  not_self ra (ptr (read_slot (s_heap s) stk rb)) -> not_self rb (ptr (read_slot (s_heap s) stk ra)) ->
  rloc_eqb ra rb = false ->
  write_slot (s_heap s) stk ra (read_slot (s_heap s) stk rb) = (h1, stk1) ->
  write_slot h1 stk1 rb (read_slot (s_heap s) stk ra) = (h2, stk2) ->
  forall s', s_heap s' = h2 -> acyclic s -> acyclic s'.
Proof.
  intros s t stk ra rb h1 stk1 h2 stk2 I Ht Es Wa Wb NSa NSb Hab Hw1 Hw2 s' Hs' A.
  set (va := read_slot (s_heap s) stk ra) in *. set (vb := read_slot (s_heap s) stk rb) in *.
  destruct (wloc_valid K s t stk ra I Ht Es Wa) as (Va & _). destruct (wloc_valid K s t stk rb I Ht Es Wb) as (Vb & _).
  destruct (write_facts Hw1 Va) as (L1 & S1 & F1 & G1 & B1 & R1 & O1).
  assert (Vb1 : loc_valid h1 stk1 rb).
  { destruct rb as [i|q j]; cbn in Vb |- *; [lia|]. destruct (F1 q) as (_ & _ & _ & _ & _ & ->). lia. }
  destruct (write_facts Hw2 Vb1) as (L2 & S2 & F2 & G2 & B2 & R2 & O2).
  (* the content of any member slot afterwards *)
  assert (Hval : forall x j0, nth j0 (o_mem (hobj s' x)) None =
            if rloc_eqb rb (RMem x j0) then va else if rloc_eqb ra (RMem x j0) then vb else nth j0 (o_mem (hobj s x)) None).
  { intros x j0. unfold hobj. rewrite Hs'. change (nth j0 (o_mem (get_obj h2 x)) None) with (read_slot h2 stk2 (RMem x j0)).
    destruct (rloc_eqb rb (RMem x j0)) eqn:Eb.
    - apply rloc_eqb_true in Eb. rewrite <- Eb. exact R2.
    - rewrite (O2 _ Eb). destruct (rloc_eqb ra (RMem x j0)) eqn:Ea.
      + apply rloc_eqb_true in Ea. rewrite <- Ea. exact R1.
      + rewrite (O1 _ Ea). reflexivity. }
  apply (acyclic_writes s s' (fun a => mem_of ra a = true \/ mem_of rb a = true)); auto.
  - intros a. destruct (mem_of ra a); auto. destruct (mem_of rb a); auto. right. intros [H|H]; discriminate.
  - intros w x [Hw|Hw]; [apply (private_no_in s t stk ra I Ht Es Wa w x Hw)|apply (private_no_in s t stk rb I Ht Es Wb w x Hw)].
  - intros y Hy j0 b Hv. rewrite Hval in Hv.
    destruct (rloc_eqb rb (RMem y j0)) eqn:Eb.
    { exfalso. apply Hy. right. apply rloc_eqb_true in Eb. rewrite Eb. cbn. apply Nat.eqb_refl. }
    destruct (rloc_eqb ra (RMem y j0)) eqn:Ea.
    { exfalso. apply Hy. left. apply rloc_eqb_true in Ea. rewrite Ea. cbn. apply Nat.eqb_refl. }
    exact Hv.
  - intros x j0 b Wx Hv. rewrite Hval in Hv.
    assert (Hself : forall l c, wloc_ok (s_heap s) stk l -> mem_of l c = true -> read_slot (s_heap s) stk l <> Some (c, true)).
    { intros [i|q j] c Wl Hc Hr; cbn in Hc; [discriminate|]. apply Nat.eqb_eq in Hc. subst c.
      apply (private_no_in s t stk (RMem q j) I Ht Es Wl q q); [cbn; apply Nat.eqb_refl|]. exists j. exact Hr. }
    assert (Hns : forall l v c, not_self l (ptr v) -> mem_of l c = true -> v <> Some (c, true)).
    { intros [i|q j] v c NS Hc Hr; cbn in Hc; [discriminate|]. apply Nat.eqb_eq in Hc. subst c v. apply NS. reflexivity. }
    destruct (rloc_eqb rb (RMem x j0)) eqn:Eb.
    { right. intros [Hb|Hb].
      - apply (Hself ra b Wa Hb). exact Hv.
      - apply (Hns rb va b NSb Hb). exact Hv. }
    destruct (rloc_eqb ra (RMem x j0)) eqn:Ea.
    { right. intros [Hb|Hb].
      - apply (Hns ra vb b NSa Hb). exact Hv.
      - apply (Hself rb b Wb Hb). exact Hv. }
    left. exists j0. exact Hv.
Qed.


(* ---- every step ---- *)

Lemma begin_le : forall h stk op h' stk' todo' ok, (forall a b, op <> OSwap a b) ->
  begin_op K h stk op = (h', stk', todo', ok) -> heap_le h' h.
Proof.
  intros h stk op h' stk' todo' ok Hns Hb.
  destruct op as [i pooled|dst src|dst src|dst src|l|a b|dst src|i v|]; cbn [begin_op] in Hb.
  2-4,7: (* OAssign, OAlias, OAssignOld, OConstCast: the heap stays *)
    destruct (resolve_r h stk src) as [[rs p]|]; [destruct (resolve_w h stk dst (ptr p)) as [[rd q]|]|];
    injection Hb as <- <- <- <-; apply heap_le_refl.
  - (* ONew *) destruct (i <? length stk); [|injection Hb as <- <- <- <-; apply heap_le_refl].
    destruct pooled; injection Hb as <- <- <- <-; [apply heap_le_refl|].
    apply app_le. intros ob [<-|[]]. apply all_none_repeat.
  - (* OReset *) destruct (resolve_w h stk l None) as [[rd q]|]; injection Hb as <- <- <- <-; apply heap_le_refl.
  - (* OSwap *) exfalso. apply (Hns a b). reflexivity.
  - (* OSetVal *) destruct (nth i stk None) as [[q [|]]|]; try (injection Hb as <- <- <- <-; apply heap_le_refl).
    destruct (o_cnt (get_obj h q) =? 1); injection Hb as <- <- <- <-; [apply upd_keepmem; reflexivity|apply heap_le_refl].
  - (* ODrain *) injection Hb as <- <- <- <-. apply heap_le_refl.
Qed.

Theorem step_acyclic : forall s t, inv1 K s -> t < length (s_thr s) -> acyclic s -> acyclic (fst (step N K s t)).
Proof.
  intros s t I Ht A. unfold step. fold (thr s t).
  destruct (thr s t) as [stk todo prog] eqn:E. cbn [t_todo t_stk t_prog].
  assert (Es : t_stk (thr s t) = stk) by (rewrite E; auto).
  destruct todo as [|a rest].
  - destruct prog as [|op prog]; [exact A|].
    destruct (begin_op K (s_heap s) stk op) as [[[h' stk'] todo'] ok] eqn:Hb. cbn [fst].
    assert (Hgen : (forall a b, op <> OSwap a b) -> acyclic (mkSt h' (upd (s_thr s) t (mkThr stk' todo' prog)) (s_pool s))).
    { intros Hns. apply (acyclic_le s); auto. cbn [s_heap]. eapply begin_le; eauto. }
    destruct op; try (apply Hgen; intros; discriminate).
    (* OSwap *)
    destruct (begin_swap K Hb) as (-> & [(-> & ->)|(ra & rb & h1 & stk1 & Wa & Wb & NSa & NSb & Eab & Hw1 & Hw2)]);
      [apply (acyclic_le s); [apply heap_le_refl|exact A]|].
    exact (swap_acyclic s t stk ra rb h1 stk1 h' stk' I Ht Es Wa Wb NSa NSb Eab Hw1 Hw2 (mkSt h' _ _) eq_refl A).
  - destruct (do_act N K (s_heap s) (s_pool s) stk a rest) as [[[[h' stk'] todo'] p'] ev] eqn:Hdo. cbn [fst].
    assert (Hgen : ~ stores_counting_member a -> acyclic (mkSt h' (upd (s_thr s) t (mkThr stk' todo' prog)) p')).
    { intros Hns. apply (acyclic_le s); auto. cbn [s_heap]. eapply do_act_le; eauto. }
    destruct a; try (apply Hgen; intros []).
    destruct l as [i|q j]; [apply Hgen; intros []|].
    destruct v as [[p [|]]|]; [|apply Hgen; intros []|apply Hgen; intros []].
    cbn [do_act] in Hdo.
    destruct (write_slot (s_heap s) stk (RMem q j) (Some (p, true))) as [h1 stk1] eqn:Hw. injection Hdo as <- <- <- <- <-.
    exact (store_acyclic s t stk q j p rest prog h1 stk1 I Ht E Hw (mkSt h1 _ _) eq_refl A).
Qed.

Lemma init_acyclic : forall max stksize progs, acyclic (init_state max stksize progs).
Proof.
  intros max stksize progs a Hp. destruct (path_last _ _ _ Hp) as (x & (j & Hj)).
  unfold hobj, init_state, get_obj in Hj. cbn in Hj. destruct x; destruct j; discriminate.
Qed.

Theorem reachable_acyclic : forall s0 s, inv1 K s0 -> progs_ok s0 -> acyclic s0 -> reachable N K s0 s -> acyclic s.
Proof.
  intros s0 s I0 P0 A0 H. induction H as [|s t H IH Ht]; auto.
  destruct (reachable_inv1 N K s0 s I0 P0 H) as (I & _). apply step_acyclic; auto.
Qed.

(* C10, no leaks: from the initial state, in any quiescent reachable state in which no live object sits
   at count zero, nothing is live: every object ever created has been released. *)
Theorem no_leak : forall max stksize progs s, progs_ok (init_state max stksize progs) ->
  reachable N K (init_state max stksize progs) s -> quiescent s ->
  (forall o, is_live (hobj s o) = true -> 1 <= o_cnt (hobj s o)) ->
  forall o, is_live (hobj s o) = false.
Proof.
  intros max stksize progs s P0 H Q Hpos.
  destruct (reachable_inv1 N K _ s (init_inv1 K max stksize progs) P0 H) as (I & _).
  apply leak_free; auto.
  apply (reachable_acyclic (init_state max stksize progs) s (init_inv1 K max stksize progs) P0 (init_acyclic max stksize progs) H).
Qed.

(* thread creation only changes counts *)
Lemma fork_acyclic : forall s progs, acyclic s -> acyclic (fork_state s progs).
Proof.
  intros s progs A. apply (acyclic_le s); auto. unfold fork_state; cbn [s_heap]. intros y.
  unfold get_obj. destruct (lt_dec y (length (s_heap s))) as [Hl|Hl].
  - rewrite bump_nth by auto. apply mem_le_refl.
  - rewrite nth_overflow by (rewrite bump_length; lia). rewrite (nth_overflow (s_heap s)) by lia. apply mem_le_refl.
Qed.

End Acyc.

(* non-vacuity: a history that builds a two-object chain (pooled parent, heap child) and drops it ends in a
   quiescent state in which no object on the heap (the parent's slab and the child) is live *)
Definition leak_demo_prog : list op :=
  [ONew 0 true; ONew 1 false; OAssign (LMem 0 0) (LStk 1); OReset (LStk 1); OAssign (LStk 2) (LStk 0); OReset (LStk 0); OReset (LStk 2)].

Example leak_demo :
  let s0 := init_state 0 4 [leak_demo_prog] in
  let s := fst (run_sched 2 2 s0 (repeat 0 60)) in
  progs_ok s0 /\ reachable 2 2 s0 s /\ quiescent s /\ 3 <= length (s_heap s) /\
  forallb (fun ob => negb (is_live ob)) (s_heap s) = true.
Proof.
  cbn zeta. split; [|split; [|split; [|split]]].
  - intros th Hin. cbn in Hin. destruct Hin as [<-|[]]; reflexivity.
  - apply run_sched_reachable; [apply r_refl|]. apply Forall_forall. intros t Ht. apply repeat_spec in Ht. subst. cbn. lia.
  - intros th Hin. vm_compute in Hin. destruct Hin as [<-|[]]. split; [reflexivity|]. intros o. reflexivity.
  - vm_compute. lia.
  - vm_compute. reflexivity.
Qed.
