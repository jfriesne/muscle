(* C19 -- the pool never creates more than _maxThreadCount threads: until Shutdown() begins every thread ever created
   (_threadIDCounter of them) sits in _availableThreads or _activeThreads, and a new one is created only when
   _availableThreads is empty and _activeThreads holds fewer than _maxThreadCount. *)
From Coq Require Import List Lia.
From Muscle Require Import Conc.TPool Conc.TPoolLemmas Conc.TPoolInv Conc.TPoolStep Conc.TPoolProofs.
Import ListNotations.

Definition CInv (s : st) : Prop :=
  s_ctr s <= s_max s /\ (s_shut s = false -> s_ctr s = length (s_avail s) + length (s_active s)).

Lemma dispatch_cinv : forall s, SInv s -> CInv s -> CInv (dispatch s).
Proof.
  apply (dispatch_rel (fun a b => CInv a -> CInv b)); auto.
  - (* spawn *)
    intros s0 I0 Hsh0 Hav Hlt [C1 C2]. unfold CInv, spawn; sst. rewrite Hav in *. specialize (C2 Hsh0). cbn in *. split; [lia|intros _; lia].
  - (* assign *)
    intros s0 t c mq rest I0 Hsh0 Hl Hp Hmq [C1 C2]. specialize (C2 Hsh0).
    assert (Hin : In t (s_avail s0)) by now apply last_opt_In.
    pose proof (lrem_length t (s_avail s0) (i_nd_avail _ I0) Hin) as Hlen.
    unfold CInv, assign; sst. rewrite app_length. cbn [length]. split; [lia|intros _; lia].
Qed.

Lemma fin_core_counts : forall s t h c,
  SInv s -> s_shut s = false -> tget t (s_thr s) = Some h -> th_client h = Some c ->
  let s2 := fin_core (upd_thr s t (mkThr None [] false (th_exited h))) t c in
  s_ctr s2 = s_ctr s /\ s_max s2 = s_max s /\ s_avail s2 = s_avail s ++ [t] /\ s_active s2 = lrem t (s_active s).
Proof.
  intros s t h c I Hsh Ht Hc.
  destruct (fin_facts s t h c I Hsh Ht Hc) as [Hregc [Hpn [Hm Hex]]].
  unfold fin_core; sst; rewrite Hregc; sst;
    destruct (tget c (s_defer s)) as [[|d0 dr]|] eqn:Hd; sst; rewrite ?Hm; sst; repeat split; auto.
Qed.

Lemma sent_max : forall s c m s' r, SInv s -> sent s c m s' r -> s_max s' = s_max s.
Proof.
  intros s c m s' r I Hs. destruct Hs; auto.
  destruct (dispatch_frame _ (send_pend_inv s c m I Hr)) as [_ [F _]]. exact F.
Qed.

Lemma step_max : forall s l s' ev, Inv s -> step s l = Some (s', ev) -> s_max s' = s_max s.
Proof.
  intros s l s' ev [I [U W]] Hst. apply step_trans in Hst. destruct Hst; eauto using sent_max.
  - (* t_finish *) unfold finished in Hf. sst. destruct (s_shut s) eqn:Hsh; [injection Hf as <- <-; auto|].
    destruct (fin_notify_frame _ _ _ _ Hf) as [u [w [-> _]]]. sst.
    destruct (dispatch_frame _ (fin_core_inv s t h c I Hsh Ht Hc Hq Hr)) as [_ [F _]]. rewrite F.
    apply (fin_core_counts s t h c I Hsh Ht Hc).
  - (* t_unreg_begin *) unfold unreg_begin in Hb. destruct (outstanding s c); injection Hb as <- <-; auto.
  - (* t_shut_end *) rewrite shut_end_eq in He. injection He as <- <-. reflexivity.
Qed.

Lemma sent_cinv : forall s c m s' r, SInv s -> CInv s -> sent s c m s' r -> CInv s'.
Proof. intros s c m s' r I C Hs. destruct Hs; auto. apply dispatch_cinv; auto. now apply send_pend_inv. Qed.

(* once Shutdown() has begun only the bound on the counter is left to keep *)
Lemma cinv_shut : forall s s', CInv s -> s_max s' = s_max s -> s_ctr s' = s_ctr s -> s_shut s' = true -> CInv s'.
Proof. intros s s' [C1 C2] E1 E2 E3. split; [congruence|intros H; congruence]. Qed.

Lemma step_cinv : forall s l s' ev, Inv s -> CInv s -> step s l = Some (s', ev) -> CInv s'.
Proof.
  intros s l s' ev [I [U W]] C Hst. pose proof (shut_true s I) as Hshut.
  apply step_trans in Hst. destruct Hst; eauto using sent_cinv.
  - (* t_finish *) unfold finished in Hf. sst. destruct (s_shut s) eqn:Hsh; [injection Hf as <- <-; now apply (cinv_shut s)|].
    pose proof (fin_core_inv s t h c I Hsh Ht Hc Hq Hr) as I2.
    destruct (fin_core_counts s t h c I Hsh Ht Hc) as [E1 [E2 [E3 E4]]].
    destruct (fin_facts s t h c I Hsh Ht Hc) as [_ [_ [Hm _]]]. apply lmem_In in Hm.
    set (s2 := fin_core (upd_thr s t (mkThr None [] false (th_exited h))) t c) in *.
    assert (C2 : CInv s2).
    { destruct C as [C1 C2]. specialize (C2 Hsh). pose proof (lrem_length t (s_active s) (i_nd_active _ I) Hm).
      unfold CInv. rewrite E1, E2, E3, E4, app_length. cbn [length]. split; [lia|intros _; lia]. }
    destruct (fin_notify_frame _ _ _ _ Hf) as [u [w [-> _]]]. exact (dispatch_cinv s2 I2 C2).
  - (* t_unreg_begin *) unfold unreg_begin in Hb. destruct (outstanding s c); injection Hb as <- <-; auto.
  - (* t_shut_begin *) now apply (cinv_shut s).
  - (* t_shut_swap_avail *) apply (cinv_shut s); auto. apply Hshut. destruct Hsd as [E|E]; rewrite E; discriminate.
  - (* t_shut_swap_active *) apply (cinv_shut s); auto. apply Hshut. rewrite Hsd. discriminate.
  - (* t_shut_end *) rewrite shut_end_eq in He. injection He as <- <-. apply (cinv_shut s); auto. apply Hshut. rewrite Hsd. discriminate.
Qed.

(* For every run: at most _maxThreadCount threads are ever created, every thread object has an id below the counter,
   and until Shutdown() begins the counter equals the number of threads in the two thread tables. *)
Theorem pool_threads_created_bound : forall n ls s tr, run (init n) ls = Some (s, tr) ->
  s_max s = n /\ s_ctr s <= n /\
  (forall t h, tget t (s_thr s) = Some h -> t < s_ctr s) /\
  (s_shut s = false -> s_ctr s = length (s_avail s) + length (s_active s)).
Proof.
  intros n ls s tr H. apply run_reach in H.
  assert (HC : CInv s /\ s_max s = n).
  { induction H; [split; [split; [cbn; lia|intros _; reflexivity]|reflexivity]|].
    destruct IHreach as [C M]. split; [eapply step_cinv; eauto; eapply reach_inv; eauto|].
    rewrite <- M. eapply step_max; eauto. eapply reach_inv; eauto. }
  destruct HC as [[C1 C2] M]. destruct (reach_inv _ _ _ H) as [I _].
  split; auto. split; [lia|]. split; [apply (i_fresh_thr _ I)|exact C2].
Qed.
