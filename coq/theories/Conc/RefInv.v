(* C10 -- the invariant of the reference-count transition system (Conc/RefCnt.v) and the
   bookkeeping lemmas (sums over threads / objects under point updates) used to prove it. *)
From Coq Require Import List Arith Bool Lia.
From Muscle Require Import Conc.Pool Conc.PoolProofs Conc.RefCnt.
Import ListNotations.
Local Open Scope nat_scope.

(* ---- sums ---- *)

Fixpoint sumf {A} (f : A -> nat) (l : list A) : nat :=
  match l with
  | [] => 0
  | x :: t => f x + sumf f t
  end.

Lemma sumf_app : forall A (f : A -> nat) a b, sumf f (a ++ b) = sumf f a + sumf f b.
Proof. induction a as [|h t IH]; intros; cbn; auto. rewrite IH; lia. Qed.

Lemma sumf_upd : forall A (f : A -> nat) l i x d, i < length l ->
  sumf f (upd l i x) + f (nth i l d) = sumf f l + f x.
Proof.
  induction l as [|h t IH]; intros [|i] x d H; cbn in *; try lia.
  specialize (IH i x d). lia.
Qed.

Lemma sumf_nth_le : forall A (f : A -> nat) l i d, i < length l -> f (nth i l d) <= sumf f l.
Proof.
  induction l as [|h t IH]; intros [|i] d H; cbn in *; try lia.
  specialize (IH i d). lia.
Qed.

Lemma sumf_nth2_le : forall A (f : A -> nat) l i j d, i < length l -> j < length l -> i <> j ->
  f (nth i l d) + f (nth j l d) <= sumf f l.
Proof.
  induction l as [|h t IH]; intros [|i] [|j] d Hi Hj Hn; cbn in *; try lia.
  - pose proof (sumf_nth_le A f t j d). lia.
  - pose proof (sumf_nth_le A f t i d). lia.
  - specialize (IH i j d). lia.
Qed.

Lemma sumf_ext : forall A (f g : A -> nat) l, (forall x, In x l -> f x = g x) -> sumf f l = sumf g l.
Proof.
  induction l as [|h t IH]; intros H; cbn; auto.
  rewrite (H h) by (left; auto). rewrite IH; auto. intros; apply H; right; auto.
Qed.

Lemma sumf_zero : forall A (f : A -> nat) l, sumf f l = 0 <-> forall x, In x l -> f x = 0.
Proof.
  induction l as [|h t IH]; cbn.
  - split; [intros _ x []|auto].
  - split.
    + intros H x [E|E]; subst; [lia|]. apply IH; auto. lia.
    + intros H. rewrite (H h) by auto. apply IH. intros; apply H; auto.
Qed.

Lemma sumf_repeat : forall A (f : A -> nat) x n, sumf f (repeat x n) = n * f x.
Proof. induction n as [|n IH]; cbn; [reflexivity|]. rewrite IH. lia. Qed.

Lemma sumf_le : forall A (f g : A -> nat) l, (forall x, In x l -> f x <= g x) -> sumf f l <= sumf g l.
Proof.
  induction l as [|h t IH]; intros H; cbn; auto.
  pose proof (H h (or_introl eq_refl)). assert (sumf f t <= sumf g t) by (apply IH; intros; apply H; right; auto). lia.
Qed.

Lemma sumf_in_le : forall A (f : A -> nat) a l, In a l -> f a <= sumf f l.
Proof.
  induction l as [|h t IH]; cbn; intros H; [tauto|]. destruct H as [E|E]; subst; [lia|]. specialize (IH E). lia.
Qed.

Lemma sumf_pos_in : forall A (f : A -> nat) l, 0 < sumf f l -> exists x, In x l /\ 0 < f x.
Proof.
  induction l as [|h t IH]; cbn; intros H; [lia|].
  destruct (f h) eqn:E.
  - destruct IH as (x & Hx & Hp); [lia|]. exists x; auto.
  - exists h. split; auto. lia.
Qed.

(* lists that agree position by position under [f], positions beyond the end counting as the neutral [d] *)
Lemma sumf_nth_ext : forall A (f : A -> nat) d l l', f d = 0 -> (forall i, f (nth i l d) = f (nth i l' d)) -> sumf f l = sumf f l'.
Proof.
  intros A f d l l' Hd. revert l'.
  assert (Z : forall l, (forall i, f (nth i l d) = 0) -> sumf f l = 0).
  { intros l0 H. apply sumf_zero. intros x Hx. apply In_nth with (d := d) in Hx. destruct Hx as (i & _ & <-). apply H. }
  induction l as [|h t IH]; intros [|h' t'] H; cbn; auto.
  - symmetry. apply (Z (h' :: t')). intros i. rewrite <- H. destruct i; exact Hd.
  - apply (Z (h :: t)). intros i. rewrite H. destruct i; exact Hd.
  - pose proof (H 0) as H0. cbn in H0. rewrite H0. f_equal. apply IH. intros i. apply (H (S i)).
Qed.

Lemma nth_app_new : forall A (l : list A) x d, nth (length l) (l ++ [x]) d = x.
Proof. intros. rewrite app_nth2 by lia. rewrite Nat.sub_diag. reflexivity. Qed.

Lemma nth_app_old : forall A (l : list A) x i d, i < length l -> nth i (l ++ [x]) d = nth i l d.
Proof. intros. rewrite app_nth1 by lia. reflexivity. Qed.

(* ---- counting references ---- *)

(* The bookkeeping behind [inv1], per object o.  A unit is a counting reference to o that exists or is promised: a
   counting slot (stack or member), a pending store of (o, true), a pending decrement of o.  A debt is a pending
   increment of o.  The count equation is  units = count + debts;  [slots] (further down) counts the slots alone and
   [net] what a thread's pending work holds beyond its debts. *)
Definition cref (o : nat) (r : ref) : nat :=
  match r with Some (q, true) => if q =? o then 1 else 0 | _ => 0 end.

Definition refs_in (o : nat) (l : list ref) : nat := sumf (cref o) l.

Definition eq1 (q o : nat) : nat := if q =? o then 1 else 0.

Definition act_unit (o : nat) (a : act) : nat :=
  match a with
  | AStore _ v => cref o v
  | ADec q | ADecKeep q => eq1 q o
  | _ => 0
  end.

Definition act_debt (o : nat) (a : act) : nat :=
  match a with
  | AInc q _ => eq1 q o
  | _ => 0
  end.

Definition thr_units (o : nat) (t : thread) : nat := refs_in o (t_stk t) + sumf (act_unit o) (t_todo t).
Definition thr_debts (o : nat) (t : thread) : nat := sumf (act_debt o) (t_todo t).
Definition obj_units (o : nat) (ob : obj) : nat := refs_in o (o_mem ob).

Definition units (o : nat) (s : state) : nat := sumf (thr_units o) (s_thr s) + sumf (obj_units o) (s_heap s).
Definition debts (o : nat) (s : state) : nat := sumf (thr_debts o) (s_thr s).

Lemma cref_some : forall o q c, cref o (Some (q, c)) = if c then eq1 q o else 0.
Proof. intros; destruct c; reflexivity. Qed.

Lemma refs_in_upd : forall o l i v, i < length l ->
  refs_in o (upd l i v) + cref o (nth i l None) = refs_in o l + cref o v.
Proof. intros; unfold refs_in; apply sumf_upd; auto. Qed.

Lemma refs_in_nth : forall o l i, nth i l None = Some (o, true) -> 1 <= refs_in o l.
Proof.
  intros o l i H. destruct (lt_dec i (length l)) as [Hl|Hl].
  - pose proof (sumf_nth_le _ (cref o) l i None Hl) as Hle. rewrite H in Hle. cbn in Hle. rewrite Nat.eqb_refl in Hle. exact Hle.
  - rewrite nth_overflow in H by lia. discriminate.
Qed.

Lemma refs_in_nth2 : forall o l i j, i <> j -> nth i l None = Some (o, true) -> nth j l None = Some (o, true) -> 2 <= refs_in o l.
Proof.
  intros o l i j Hn Hi Hj.
  assert (i < length l) by (destruct (lt_dec i (length l)); auto; rewrite nth_overflow in Hi by lia; discriminate).
  assert (j < length l) by (destruct (lt_dec j (length l)); auto; rewrite nth_overflow in Hj by lia; discriminate).
  pose proof (sumf_nth2_le _ (cref o) l i j None H H0 Hn) as Hle. rewrite Hi, Hj in Hle. cbn in Hle. rewrite Nat.eqb_refl in Hle. exact Hle.
Qed.

Lemma refs_in_none : forall o n, refs_in o (repeat None n) = 0.
Proof. intros; unfold refs_in; rewrite sumf_repeat; cbn; lia. Qed.

Lemma all_none_repeat : forall n, all_none (repeat None n) = true.
Proof. intros n. unfold all_none. apply forallb_forall. intros x Hx. apply repeat_spec in Hx. subst. reflexivity. Qed.

Lemma all_none_refs : forall o l, all_none l = true -> refs_in o l = 0.
Proof.
  intros o l H. unfold refs_in. apply sumf_zero. intros x Hx. unfold all_none in H. rewrite forallb_forall in H.
  specialize (H x Hx). destruct x; [discriminate|reflexivity].
Qed.

(* ---- point updates of the heap ---- *)

Lemma get_upd_same : forall h x ob, x < length h -> get_obj (upd h x ob) x = ob.
Proof. intros; unfold get_obj; apply nth_upd_same; auto. Qed.
Lemma get_upd_other : forall h x y ob, x <> y -> get_obj (upd h x ob) y = get_obj h y.
Proof. intros; unfold get_obj; apply nth_upd_other; auto. Qed.

Lemma heap_units_upd : forall h x ob o, x < length h ->
  sumf (obj_units o) (upd h x ob) + obj_units o (get_obj h x) = sumf (obj_units o) h + obj_units o ob.
Proof. intros. unfold get_obj. apply sumf_upd; auto. Qed.

Lemma get_upd : forall h x ob z, x < length h -> get_obj (upd h x ob) z = if z =? x then ob else get_obj h z.
Proof.
  intros h x ob z Hx. destruct (Nat.eqb_spec z x) as [->|Hne]; [apply get_upd_same|apply get_upd_other]; auto.
Qed.

Lemma heap_units_keep : forall h x ob o, o_mem ob = o_mem (get_obj h x) ->
  sumf (obj_units o) (upd h x ob) = sumf (obj_units o) h.
Proof.
  intros h x ob o E. destruct (lt_dec x (length h)) as [Hx|Hx]; [|rewrite upd_oob by lia; reflexivity].
  pose proof (heap_units_upd h x ob o Hx) as H.
  assert (obj_units o ob = obj_units o (get_obj h x)) by (unfold obj_units; rewrite E; reflexivity). lia.
Qed.

Lemma get_beyond : forall h z, length h <= z -> get_obj h z = dobj.
Proof. intros. unfold get_obj. apply nth_overflow; auto. Qed.

Lemma releasing_not_live : forall ob, is_releasing ob = true -> is_live ob = false.
Proof. intros ob H. unfold is_live, is_releasing in *. destruct (o_st ob); auto; discriminate. Qed.

Lemma live_lt : forall h o, is_live (get_obj h o) = true -> o < length h.
Proof. intros h o H. destruct (lt_dec o (length h)); auto. rewrite get_beyond in H by lia. discriminate. Qed.

Lemma releasing_lt : forall h o, is_releasing (get_obj h o) = true -> o < length h.
Proof. intros h o H. destruct (lt_dec o (length h)); auto. rewrite get_beyond in H by lia. discriminate. Qed.

(* ---- shapes of pending work ---- *)

Definition is_frame (a : act) : bool :=
  match a with ARel _ _ | ASlabDel _ | ADec _ | ADecKeep _ => true | _ => false end.

Definition single_ok (a : act) : Prop :=
  match a with
  | AUntag _ | APoolObt _ | ADrain => True
  | _ => False
  end.

(* the possible forms of a thread's pending work: a cascade (release frames and pending
   decrements) optionally followed by the final store of a SetRef; or an operation that has not
   yet passed its first atomic step *)
Inductive shape : list act -> Prop :=
| sh_frames : forall fr, forallb is_frame fr = true -> shape fr
| sh_store : forall fr l v, forallb is_frame fr = true -> shape (fr ++ [AStore l v])
| sh_inc1 : forall o src l, shape [AInc o src; AStore l (Some (o, true))]
| sh_inc2 : forall o src l, shape [AInc o src; ATake l; AStore l (Some (o, true))]
| sh_take1 : forall l, shape [ATake l]
| sh_take2 : forall l v, shape [ATake l; AStore l v]
| sh_single : forall a, single_ok a -> shape [a].

Lemma frames_no_debt : forall o fr, forallb is_frame fr = true -> sumf (act_debt o) fr = 0.
Proof.
  induction fr as [|a fr IH]; cbn; intros H; auto.
  apply andb_true_iff in H. destruct H as (Ha & Hf). rewrite (IH Hf).
  destruct a; cbn in Ha; try discriminate; cbn; auto.
Qed.

Lemma shape_net : forall o todo, shape todo -> sumf (act_debt o) todo <= sumf (act_unit o) todo.
Proof.
  intros o todo H. destruct H as [fr Hf|fr l v Hf|q src l|q src l|l|l v|a Ha].
  - rewrite (frames_no_debt o fr Hf). lia.
  - rewrite !sumf_app. rewrite (frames_no_debt o fr Hf). cbn. lia.
  - cbn. unfold eq1. destruct (q =? o); lia.
  - cbn. unfold eq1. destruct (q =? o); lia.
  - cbn. lia.
  - cbn. lia.
  - destruct a; cbn in Ha; try tauto; cbn; try lia.
Qed.

(* ---- the invariant ---- *)

Section Inv.
Variable K : nat.

Definition hobj (s : state) (o : nat) : obj := get_obj (s_heap s) o.
Definition thr (s : state) (t : nat) : thread := nth t (s_thr s) dthr.

Definition wloc_ok (h : list obj) (stk : list ref) (l : rloc) : Prop :=
  match l with
  | RStk i => i < length stk
  | RMem q j => j < length (o_mem (get_obj h q)) /\ o_cnt (get_obj h q) = 1 /\ exists i, nth i stk None = Some (q, true)
  end.

Definition not_self (l : rloc) (p : option nat) : Prop :=
  match l with RMem q _ => p <> Some q | RStk _ => True end.

Definition src_ok (s : state) (stk : list ref) (o : nat) (src : option rloc) : Prop :=
  match src with
  | Some (RStk i) => nth i stk None = Some (o, true)
  | Some (RMem q j) => nth j (o_mem (hobj s q)) None = Some (o, true) /\ exists i, nth i stk None = Some (q, true)
  | None => is_live (hobj s o) = true /\ o_cnt (hobj s o) = 0 /\ units o s = 1
  end.

Definition processed_none (ob : obj) (n : nat) : Prop :=
  forall m, m < n -> nth (rel_index ob m) (o_mem ob) None = None.

Definition act_ok (s : state) (stk : list ref) (a : act) : Prop :=
  match a with
  | AInc o src => src_ok s stk o src
  | ATake l | AUntag l | APoolObt l => wloc_ok (s_heap s) stk l
  | AStore l v => wloc_ok (s_heap s) stk l /\ not_self l (ptr v)
  | ARel o n => is_releasing (hobj s o) = true /\ n <= length (o_mem (hobj s o)) /\ processed_none (hobj s o) n
  | ADec _ | ADecKeep _ | ADrain | ASlabDel _ => True
  end.

Definition rel_count (o : nat) (a : act) : nat := match a with ARel q _ => eq1 q o | _ => 0 end.
Definition rels (o : nat) (s : state) : nat := sumf (fun t => sumf (rel_count o) (t_todo t)) (s_thr s).

Definition quiet (ob : obj) : Prop := match o_st ob with Pooled | Dead => all_none (o_mem ob) = true | _ => True end.

Lemma live_quiet : forall ob, is_live ob = true -> quiet ob.
Proof. intros ob H. unfold quiet, is_live in *. destruct (o_st ob); auto; discriminate. Qed.

Record inv1 (s : state) : Prop := mkInv1 {
  i_count : forall o, units o s = o_cnt (hobj s o) + debts o s;
  i_nolive : forall o, is_live (hobj s o) = false -> units o s = 0;
  i_mem : forall o, o < length (s_heap s) -> length (o_mem (hobj s o)) = K /\ quiet (hobj s o);
  i_shape : forall t, t < length (s_thr s) -> shape (t_todo (thr s t));
  i_acts : forall t a, t < length (s_thr s) -> In a (t_todo (thr s t)) -> act_ok s (t_stk (thr s t)) a;
  i_rels : forall o, rels o s = if is_releasing (hobj s o) then 1 else 0;
  i_ghost : forall o, o < length (s_heap s) -> o_births (hobj s o) = o_deaths (hobj s o) + (if is_live (hobj s o) then 1 else 0)
}.

(* ---- what the count bounds ---- *)

Definition slots (o : nat) (s : state) : nat :=
  sumf (fun t => refs_in o (t_stk t)) (s_thr s) + sumf (obj_units o) (s_heap s).

Definition net (o : nat) (t : thread) : nat := sumf (act_unit o) (t_todo t) - sumf (act_debt o) (t_todo t).

Lemma sumf_plus : forall A (f g : A -> nat) l, sumf (fun x => f x + g x) l = sumf f l + sumf g l.
Proof. induction l as [|h t IH]; cbn; auto. rewrite IH; lia. Qed.

Lemma shapes_all : forall s, (forall t, t < length (s_thr s) -> shape (t_todo (thr s t))) ->
  forall th, In th (s_thr s) -> shape (t_todo th).
Proof.
  intros s H th Hin. apply In_nth with (d := dthr) in Hin. destruct Hin as (t & Ht & E). rewrite <- E. apply H; auto.
Qed.

Lemma count_bound : forall s o, inv1 s ->
  o_cnt (hobj s o) = slots o s + sumf (net o) (s_thr s).
Proof.
  intros s o I. pose proof (i_count s I o) as HC. unfold units, debts in HC.
  assert (E : sumf (thr_units o) (s_thr s) = sumf (fun t => refs_in o (t_stk t)) (s_thr s) + sumf (fun t => sumf (act_unit o) (t_todo t)) (s_thr s)).
  { unfold thr_units. apply sumf_plus. }
  assert (E2 : sumf (fun t => sumf (act_unit o) (t_todo t)) (s_thr s) = sumf (net o) (s_thr s) + sumf (thr_debts o) (s_thr s)).
  { rewrite <- sumf_plus. apply sumf_ext. intros th Hin. unfold net, thr_debts.
    pose proof (shape_net o (t_todo th) (shapes_all s (i_shape s I) th Hin)). lia. }
  unfold slots. lia.
Qed.

Lemma cnt_ge_slots : forall s o, inv1 s -> slots o s <= o_cnt (hobj s o).
Proof. intros s o I. rewrite (count_bound s o I). lia. Qed.

Lemma live_of_units : forall s o, inv1 s -> 1 <= units o s -> is_live (hobj s o) = true.
Proof.
  intros s o I H. destruct (is_live (hobj s o)) eqn:E; auto. pose proof (i_nolive s I o E). lia.
Qed.

Lemma slots_le_units : forall s o, slots o s <= units o s.
Proof.
  intros s o. unfold slots, units. assert (sumf (fun t => refs_in o (t_stk t)) (s_thr s) <= sumf (thr_units o) (s_thr s)).
  { apply sumf_le. intros; unfold thr_units; lia. }
  lia.
Qed.

(* a counting reference in a stack slot *)
Lemma stk_slot : forall s t i o, t < length (s_thr s) -> nth i (t_stk (thr s t)) None = Some (o, true) -> 1 <= slots o s.
Proof.
  intros s t i o Ht H. unfold slots.
  pose proof (sumf_nth_le _ (fun t => refs_in o (t_stk t)) (s_thr s) t dthr Ht) as Hle. cbn beta in Hle.
  pose proof (refs_in_nth o _ i H). unfold thr in H0. lia.
Qed.

(* a counting reference in a member slot *)
Lemma mem_slot_lt : forall s q j (r : nat * bool), nth j (o_mem (hobj s q)) None = Some r -> q < length (s_heap s).
Proof.
  intros s q j r H. destruct (lt_dec q (length (s_heap s))); auto. unfold hobj, get_obj in H.
  rewrite (nth_overflow (s_heap s)) in H by lia. cbn in H. destruct j; discriminate.
Qed.

Lemma mem_slot : forall s q j o, nth j (o_mem (hobj s q)) None = Some (o, true) -> 1 <= slots o s.
Proof.
  intros s q j o H. unfold slots.
  pose proof (sumf_nth_le _ (obj_units o) (s_heap s) q dobj (mem_slot_lt s q j _ H)) as Hle.
  pose proof (refs_in_nth o _ j H). unfold obj_units at 1 in Hle. unfold hobj, get_obj in H0. lia.
Qed.

Lemma stk_mem_slots : forall s t i q j o, t < length (s_thr s) ->
  nth i (t_stk (thr s t)) None = Some (o, true) -> nth j (o_mem (hobj s q)) None = Some (o, true) -> 2 <= slots o s.
Proof.
  intros s t i q j o Ht H1 H2. unfold slots.
  pose proof (sumf_nth_le _ (fun t => refs_in o (t_stk t)) (s_thr s) t dthr Ht) as Hle. cbn beta in Hle.
  pose proof (refs_in_nth o _ i H1). unfold thr in H.
  pose proof (sumf_nth_le _ (obj_units o) (s_heap s) q dobj (mem_slot_lt s q j _ H2)) as Hle2.
  pose proof (refs_in_nth o _ j H2). unfold obj_units at 1 in Hle2. unfold hobj, get_obj in H0. lia.
Qed.

Lemma stk_stk_slots : forall s t u i i' o, t < length (s_thr s) -> u < length (s_thr s) -> t <> u ->
  nth i (t_stk (thr s t)) None = Some (o, true) -> nth i' (t_stk (thr s u)) None = Some (o, true) -> 2 <= slots o s.
Proof.
  intros s t u i i' o Ht Hu Hne H1 H2. unfold slots.
  pose proof (sumf_nth2_le _ (fun t => refs_in o (t_stk t)) (s_thr s) t u dthr Ht Hu Hne) as Hle. cbn beta in Hle.
  pose proof (refs_in_nth o _ i H1). pose proof (refs_in_nth o _ i' H2). unfold thr in *. lia.
Qed.

Lemma stk_stk_same_slots : forall s t i i' o, t < length (s_thr s) -> i <> i' ->
  nth i (t_stk (thr s t)) None = Some (o, true) -> nth i' (t_stk (thr s t)) None = Some (o, true) -> 2 <= slots o s.
Proof.
  intros s t i i' o Ht Hne H1 H2. unfold slots.
  pose proof (sumf_nth_le _ (fun t => refs_in o (t_stk t)) (s_thr s) t dthr Ht) as Hle. cbn beta in Hle.
  pose proof (refs_in_nth2 o _ i i' Hne H1 H2). unfold thr in *. lia.
Qed.

Lemma mem_mem_slots : forall s q q' j j' o, (q <> q' \/ j <> j') ->
  nth j (o_mem (hobj s q)) None = Some (o, true) -> nth j' (o_mem (hobj s q')) None = Some (o, true) -> 2 <= slots o s.
Proof.
  intros s q q' j j' o Hne H1 H2. unfold slots.
  pose proof (mem_slot_lt _ _ _ _ H1). pose proof (mem_slot_lt _ _ _ _ H2).
  destruct (Nat.eq_dec q q') as [E|E].
  - subst q'. assert (j <> j') by tauto.
    pose proof (sumf_nth_le _ (obj_units o) (s_heap s) q dobj H) as Hle.
    pose proof (refs_in_nth2 o _ j j' H3 H1 H2). unfold obj_units at 1 in Hle. unfold hobj, get_obj in *. lia.
  - pose proof (sumf_nth2_le _ (obj_units o) (s_heap s) q q' dobj H H0 E) as Hle.
    pose proof (refs_in_nth o _ j H1). pose proof (refs_in_nth o _ j' H2). unfold obj_units at 1 2 in Hle. unfold hobj, get_obj in *. lia.
Qed.

End Inv.
