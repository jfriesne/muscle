(* C10 -- the link between the heap's life-cycle states and the pool's bookkeeping, as an invariant
   of the transition system: a node is in a free list exactly when its object is in the pooled
   (default) state, the objects of a slab waiting for deletion are all pooled, slabs (listed or
   waiting for deletion) are pairwise disjoint. *)
From Coq Require Import List Arith Bool Lia Permutation.
From Muscle Require Import Conc.Pool Conc.PoolProofs Conc.RefCnt Conc.RefInv Conc.RefExcl Conc.RefActs Conc.RefActs3 Conc.RefProofs.
Import ListNotations.
Local Open Scope nat_scope.

Section PoolLink.
Variables N K : nat.

Fixpoint slabs_of (todo : list act) : list slab :=
  match todo with
  | [] => []
  | ASlabDel sd :: r => sd :: slabs_of r
  | _ :: r => slabs_of r
  end.

Definition pend (s : state) : list slab := concat (map (fun t => slabs_of (t_todo t)) (s_thr s)).

Definition owned_by (l : list slab) (x : nat) : Prop := exists sd, In sd l /\ owns N sd x = true.

(* slabs waiting for deletion outside the lock: inside the heap, pairwise disjoint *)
Definition pend_ok (hlen : nat) (l : list slab) : Prop :=
  Forall (fun sd => sl_base sd + N <= hlen) l /\ NoDup (map sl_base l) /\
  (forall sd sd' x, In sd l -> In sd' l -> owns N sd x = true -> owns N sd' x = true -> sl_base sd = sl_base sd').

Record plink (s : state) : Prop := mkPlink {
  pl_wf : pool_wf N (length (s_heap s)) (s_pool s);
  pl_pendok : pend_ok (length (s_heap s)) (pend s);
  pl_cross : forall x, owned_by (pend s) x -> ~ owned_by (p_slabs (s_pool s)) x;
  pl_free : forall x, pfree N (p_slabs (s_pool s)) x -> o_st (hobj s x) = Pooled /\ o_val (hobj s x) = 0;
  pl_used : forall x, pused N (p_slabs (s_pool s)) x -> o_st (hobj s x) = Live \/ o_st (hobj s x) = Releasing;
  pl_pend : forall x, owned_by (pend s) x -> o_st (hobj s x) = Pooled;
  pl_cover : forall x, x < length (s_heap s) -> o_pooled (hobj s x) = true -> o_st (hobj s x) <> Dead ->
             owned_by (pend s ++ p_slabs (s_pool s)) x;
  pl_flag : forall x, owned_by (pend s ++ p_slabs (s_pool s)) x -> o_pooled (hobj s x) = true
}.

Lemma owned_perm : forall l l' x, Permutation l l' -> owned_by l x -> owned_by l' x.
Proof. intros l l' x HP (sd & Hin & Ho). exists sd. split; auto. eapply Permutation_in; eauto. Qed.

Lemma owned_app : forall a b x, owned_by (a ++ b) x <-> owned_by a x \/ owned_by b x.
Proof.
  intros a b x. split.
  - intros (sd & Hin & Ho). apply in_app_or in Hin. destruct Hin; [left|right]; exists sd; auto.
  - intros [(sd & Hin & Ho)|(sd & Hin & Ho)]; exists sd; split; auto; apply in_or_app; auto.
Qed.

Lemma pfree_owned : forall l x, pfree N l x -> owned_by l x.
Proof. intros l x (sd & Hin & Ho & _). exists sd; auto. Qed.
Lemma pused_owned : forall l x, pused N l x -> owned_by l x.
Proof. intros l x (sd & Hin & Ho & _). exists sd; auto. Qed.

Lemma owned_free_or_used : forall l x, owned_by l x -> pfree N l x \/ pused N l x.
Proof.
  intros l x (sd & Hin & Ho).
  destruct (in_dec Nat.eq_dec (x - sl_base sd) (free_nodes N sd)); [left|right]; exists sd; auto.
Qed.

Lemma cwf_weaken : forall hlen hlen' nid l, hlen <= hlen' -> cwf N hlen nid l -> cwf N hlen' nid l.
Proof.
  intros hlen hlen' nid l Hle (H1 & H2 & H3 & H4 & H5). repeat split; auto.
  rewrite Forall_forall in *. intros sd Hs. specialize (H4 sd Hs). lia.
Qed.

Lemma cwf_owned_lt : forall hlen nid l x, cwf N hlen nid l -> owned_by l x -> x < hlen.
Proof. intros hlen nid l x Hc (sd & Hin & Ho). eapply owned_lt_hlen; eauto. Qed.

(* ---- pending slabs under a thread update ---- *)

Lemma concat_map_upd : forall A B (f : A -> list B) l i x d, i < length l ->
  Permutation (concat (map f (upd l i x)) ++ f (nth i l d)) (concat (map f l) ++ f x).
Proof.
  induction l as [|h t IH]; intros [|i] x d Hi; cbn in *; try lia.
  - rewrite <- app_assoc. apply Permutation_trans with ((concat (map f t) ++ f h) ++ f x); [apply Permutation_app_comm|].
    apply Permutation_app_tail. apply Permutation_app_comm.
  - rewrite <- !app_assoc. apply Permutation_app_head. apply IH. lia.
Qed.

Lemma pend_with : forall s t th' h' p', t < length (s_thr s) ->
  Permutation (pend (with_thr s t th' h' p') ++ slabs_of (t_todo (thr s t))) (pend s ++ slabs_of (t_todo th')).
Proof. intros. unfold pend, with_thr, thr; cbn [s_thr]. apply (concat_map_upd _ _ (fun t => slabs_of (t_todo t))); auto. Qed.

Lemma pend_add : forall s t th' h' p' add, t < length (s_thr s) ->
  slabs_of (t_todo th') = add ++ slabs_of (t_todo (thr s t)) -> Permutation (pend (with_thr s t th' h' p')) (add ++ pend s).
Proof.
  intros s t th' h' p' add Ht E. pose proof (pend_with s t th' h' p' Ht) as HP. rewrite E in HP.
  apply (Permutation_app_inv_r (slabs_of (t_todo (thr s t)))). eapply Permutation_trans; [exact HP|].
  rewrite app_assoc. apply Permutation_app_tail, Permutation_app_comm.
Qed.

Lemma pend_same : forall s t th' h' p', t < length (s_thr s) ->
  slabs_of (t_todo th') = slabs_of (t_todo (thr s t)) -> Permutation (pend (with_thr s t th' h' p')) (pend s).
Proof. intros s t th' h' p' Ht E. apply (pend_add s t th' h' p' []); auto. Qed.

Lemma slabs_of_app : forall a b, slabs_of (a ++ b) = slabs_of a ++ slabs_of b.
Proof. induction a as [|x a IH]; intros; cbn; auto. destruct x; cbn; rewrite ?IH; auto. Qed.

(* ---- steps that do not involve the pool ---- *)

(* what a step outside the pool's critical sections may do to a pooled object: start its release, nothing else
   the books could notice *)
Definition obj_frame (ob ob' : obj) : Prop :=
  o_pooled ob' = o_pooled ob /\
  (o_pooled ob = true ->
     (o_st ob' = o_st ob \/ (o_st ob = Live /\ o_st ob' = Releasing)) /\
     (is_live ob = false -> o_val ob' = o_val ob)).

Lemma pend_ok_perm : forall hlen l l', Permutation l l' -> pend_ok hlen l -> pend_ok hlen l'.
Proof.
  intros hlen l l' HP (H1 & H2 & H3). split; [|split].
  - eapply Permutation_Forall; eauto.
  - eapply Permutation_NoDup; [apply Permutation_map; eauto|auto].
  - intros sd sd' x I1 I2. apply H3; eapply Permutation_in; try eassumption; apply Permutation_sym; auto.
Qed.

Lemma pend_ok_weaken : forall hlen hlen' l, hlen <= hlen' -> pend_ok hlen l -> pend_ok hlen' l.
Proof.
  intros hlen hlen' l Hle (H1 & H2 & H3). split; [|split]; auto.
  rewrite Forall_forall in *. intros sd Hs. specialize (H1 sd Hs). lia.
Qed.

Lemma pend_owned_lt : forall hlen l x, pend_ok hlen l -> owned_by l x -> x < hlen.
Proof.
  intros hlen l x (H1 & _) (sd & Hin & Ho). rewrite Forall_forall in H1. specialize (H1 sd Hin). apply owns_spec in Ho. lia.
Qed.

Lemma all_owned_lt : forall s x, plink s -> owned_by (pend s ++ p_slabs (s_pool s)) x -> x < length (s_heap s).
Proof.
  intros s x P Hx. apply owned_app in Hx. destruct Hx as [Hx|Hx].
  - eapply pend_owned_lt; eauto. apply (pl_pendok s P).
  - eapply cwf_owned_lt; [apply (pool_wf_cwf (pl_wf s P))|auto].
Qed.

(* ---- the link, object by object ---- *)

(* the object-wise fields of [plink] (pl_cross .. pl_flag) for one object x, so that a critical section argues only
   about the objects whose status it changes *)
Definition olink (pl l : list slab) (hlen : nat) (ob : obj) (x : nat) : Prop :=
  (owned_by pl x -> ~ owned_by l x) /\
  (pfree N l x -> o_st ob = Pooled /\ o_val ob = 0) /\
  (pused N l x -> o_st ob = Live \/ o_st ob = Releasing) /\
  (owned_by pl x -> o_st ob = Pooled) /\
  (x < hlen -> o_pooled ob = true -> o_st ob <> Dead -> owned_by (pl ++ l) x) /\
  (owned_by (pl ++ l) x -> o_pooled ob = true).

Lemma plink_olink : forall s, plink s <->
  pool_wf N (length (s_heap s)) (s_pool s) /\ pend_ok (length (s_heap s)) (pend s) /\
  forall x, olink (pend s) (p_slabs (s_pool s)) (length (s_heap s)) (hobj s x) x.
Proof.
  intros s. split.
  - intros [P1 P2 P3 P4 P5 P6 P7 P8]. split; auto. split; auto. intros x. repeat split; auto; [apply P4|apply P4]; auto.
  - intros (P1 & P2 & H). constructor; auto; intros x; destruct (H x) as (A & B & C & D & E & F); auto.
Qed.

Lemma owned_iff : forall l x, owned_by l x <-> pfree N l x \/ pused N l x.
Proof. intros l x. split; [apply owned_free_or_used|intros [H|H]; [apply pfree_owned|apply pused_owned]; auto]. Qed.

(* an object whose status in the books has not changed *)
Lemma olink_same : forall {pl pl' l l' hlen hlen' ob x}, olink pl l hlen ob x ->
  (owned_by pl' x <-> owned_by pl x) -> (pfree N l' x <-> pfree N l x) -> (pused N l' x <-> pused N l x) ->
  (x < hlen' -> x < hlen) -> olink pl' l' hlen' ob x.
Proof.
  intros pl pl' l l' hlen hlen' ob x (A & B & C & D & E & F) Hp Hf Hu Hl.
  assert (Ho : owned_by l' x <-> owned_by l x) by (rewrite !owned_iff; tauto).
  unfold olink. rewrite !owned_app, Hp, Hf, Hu, Ho. rewrite owned_app in E, F. tauto.
Qed.

Lemma owned_perm_iff : forall l l' x, Permutation l l' -> (owned_by l x <-> owned_by l' x).
Proof. intros l l' x HP. split; apply owned_perm; auto. apply Permutation_sym; auto. Qed.

Lemma owned_cons : forall sd l l' x, Permutation l (sd :: l') -> (owned_by l x <-> owns N sd x = true \/ owned_by l' x).
Proof.
  intros sd l l' x HP. rewrite (owned_perm_iff _ _ x HP). split.
  - intros (a & [<-|Ia] & Oa); auto. right; exists a; auto.
  - intros [H|(a & Ia & Oa)]; [exists sd; split; auto; left; auto|exists a; split; auto; right; auto].
Qed.

Lemma plink_frame : forall s s', plink s ->
  s_pool s' = s_pool s -> Permutation (pend s') (pend s) ->
  length (s_heap s) <= length (s_heap s') ->
  (forall x, length (s_heap s) <= x -> o_pooled (hobj s' x) = false) ->
  (forall x, x < length (s_heap s) -> obj_frame (hobj s x) (hobj s' x)) ->
  plink s'.
Proof.
  intros s s' P Ep HP Hlen Hnew Hold. pose proof P as [P1 P2 P2b P3 P4 P5 P6 P7].
  assert (HPall : Permutation (pend s' ++ p_slabs (s_pool s)) (pend s ++ p_slabs (s_pool s))) by (apply Permutation_app_tail; auto).
  assert (Hpooled : forall x, owned_by (pend s ++ p_slabs (s_pool s)) x ->
            o_pooled (hobj s x) = true /\ obj_frame (hobj s x) (hobj s' x)).
  { intros x Hx. split; auto. apply Hold. eapply all_owned_lt; eauto. }
  constructor; rewrite ?Ep.
  - eapply pool_wf_weaken; eauto.
  - eapply pend_ok_weaken; eauto. eapply pend_ok_perm; [apply Permutation_sym; eauto|auto].
  - intros x Hx. apply P2b. eapply owned_perm; eauto.
  - intros x Hx. destruct (P3 x Hx) as (A1 & A2).
    destruct (Hpooled x) as (B1 & (B2 & B3)); [apply owned_app; right; apply pfree_owned; auto|].
    destruct (B3 B1) as ([E|(E & _)] & Ev); [|congruence]. rewrite E, Ev; auto. unfold is_live. rewrite A1. reflexivity.
  - intros x Hx. destruct (Hpooled x) as (B1 & (B2 & B3)); [apply owned_app; right; apply pused_owned; auto|].
    destruct (B3 B1) as ([E|(E1 & E2)] & _); [rewrite E; auto|auto].
  - intros x Hx. assert (Hx' : owned_by (pend s) x) by (eapply owned_perm; eauto).
    destruct (Hpooled x) as (B1 & (B2 & B3)); [apply owned_app; left; auto|].
    specialize (P5 x Hx'). destruct (B3 B1) as ([E|(E & _)] & _); congruence.
  - intros x Hx Hp Hd. destruct (lt_dec x (length (s_heap s))) as [Hl|Hl]; [|rewrite Hnew in Hp by lia; discriminate].
    destruct (Hold x Hl) as (B2 & B3). rewrite B2 in Hp. destruct (B3 Hp) as ([E|(E1 & E2)] & _).
    + eapply owned_perm; [apply Permutation_sym; eauto|]. apply P6; auto. congruence.
    + eapply owned_perm; [apply Permutation_sym; eauto|]. apply P6; auto. congruence.
  - intros x Hx. assert (Hx' : owned_by (pend s ++ p_slabs (s_pool s)) x) by (eapply owned_perm; eauto).
    destruct (Hpooled x Hx') as (B1 & (B2 & _)). congruence.
Qed.


(* ---- heap changes that leave the pool's view intact ---- *)

Definition heap_frame (h h' : list obj) : Prop :=
  length h <= length h' /\
  (forall x, length h <= x -> o_pooled (get_obj h' x) = false) /\
  (forall x, x < length h -> obj_frame (get_obj h x) (get_obj h' x)).

Lemma obj_frame_refl : forall ob, obj_frame ob ob.
Proof. intros ob. split; auto. Qed.

Lemma obj_frame_trans : forall a b c, obj_frame a b -> obj_frame b c -> obj_frame a c.
Proof.
  intros a b c (A1 & A2) (B1 & B2). split; [congruence|]. intros Hp.
  destruct (A2 Hp) as (A3 & A4). assert (Hpb : o_pooled b = true) by congruence. destruct (B2 Hpb) as (B3 & B4).
  split.
  - destruct A3 as [E|(E1 & E2)]; destruct B3 as [F|(F1 & F2)]; try (left; congruence); try (right; split; congruence).
  - intros Hl. rewrite B4; auto. unfold is_live in *. destruct A3 as [E|(E1 & E2)]; [rewrite E; auto|rewrite E1 in Hl; discriminate].
Qed.

Lemma heap_frame_refl : forall h, heap_frame h h.
Proof.
  intros h. split; auto. split.
  - intros x Hx. unfold get_obj. rewrite nth_overflow by auto. reflexivity.
  - intros; apply obj_frame_refl.
Qed.

Lemma heap_frame_trans : forall a b c, heap_frame a b -> heap_frame b c -> heap_frame a c.
Proof.
  intros a b c (A1 & A2 & A3) (B1 & B2 & B3). split; [lia|]. split.
  - intros x Hx. destruct (lt_dec x (length b)) as [Hl|Hl]; [|apply B2; lia].
    destruct (B3 x Hl) as (E & _). rewrite E. apply A2; auto.
  - intros x Hx. eapply obj_frame_trans; [apply A3; auto|apply B3; lia].
Qed.

Lemma frame_upd : forall h o ob', obj_frame (get_obj h o) ob' -> heap_frame h (upd h o ob').
Proof.
  intros h o ob' Hf. split; [rewrite upd_length; auto|]. split.
  - intros x Hx. destruct (Nat.eq_dec o x) as [->|Hne].
    + rewrite upd_oob by lia. unfold get_obj. rewrite nth_overflow by lia. reflexivity.
    + rewrite get_upd_other by auto. unfold get_obj. rewrite nth_overflow by lia. reflexivity.
  - intros x Hx. destruct (Nat.eq_dec o x) as [->|Hne].
    + rewrite get_upd_same by auto. auto.
    + rewrite get_upd_other by auto. apply obj_frame_refl.
Qed.

Lemma frame_inc : forall h o h', inc_obj h o = Some h' -> heap_frame h h'.
Proof.
  intros h o h' H. unfold inc_obj in H. destruct (is_live (get_obj h o)); inversion H; subst.
  apply frame_upd. split; auto.
Qed.

Lemma frame_dec : forall h q h' z, dec_obj h q = Some (h', z) -> heap_frame h h'.
Proof.
  intros h q h' z H. unfold dec_obj in H. destruct (is_live (get_obj h q)) eqn:El; cbn [andb] in H; [|discriminate].
  destruct (0 <? o_cnt (get_obj h q)); [|discriminate].
  destruct (o_cnt (get_obj h q) - 1 =? 0); inversion H; subst; apply frame_upd; split; auto; intros Hp; cbn.
  split; [right; split; auto; unfold is_live in El; destruct (o_st (get_obj h q)); auto; discriminate|auto].
Qed.

Lemma frame_dec_keep : forall h q h', dec_keep h q = Some h' -> heap_frame h h'.
Proof.
  intros h q h' H. unfold dec_keep in H. destruct (is_live (get_obj h q) && (0 <? o_cnt (get_obj h q))); inversion H; subst.
  apply frame_upd. split; auto.
Qed.

Lemma frame_write : forall h stk l v h1 stk1, write_slot h stk l v = (h1, stk1) -> heap_frame h h1.
Proof.
  intros h stk [i|q j] v h1 stk1 H; cbn in H; inversion H; subst; [apply heap_frame_refl|].
  apply frame_upd. split; auto.
Qed.

Lemma slabs_of_dec_of : forall old, slabs_of (dec_of old) = [].
Proof. intros [[q [|]]|]; reflexivity. Qed.

Definition bad56 (e : event) : bool := match e with EvBad w => (w =? 5) || (w =? 6) | _ => false end.

(* the actions that do not involve the pool *)
Definition pool_free_act (h : list obj) (a : act) : Prop :=
  match a with
  | APoolObt _ | ADrain | ASlabDel _ => False
  | ARel o n => is_releasing (get_obj h o) = true -> n < length (o_mem (get_obj h o)) \/ o_pooled (get_obj h o) = false
  | _ => True
  end.

Lemma do_act_frame : forall h p stk a rest h' stk' todo' p' ev, pool_free_act h a ->
  do_act N K h p stk a rest = (h', stk', todo', p', ev) ->
  p' = p /\ heap_frame h h' /\ slabs_of todo' = slabs_of (a :: rest) /\ bad56 ev = false.
Proof.
  intros h p stk a rest h' stk' todo' p' ev Hpf H. destruct a; cbn [do_act] in H; cbn in Hpf; try tauto.
  - (* AInc *) destruct (inc_obj h o) eqn:E; inversion H; subst; (split; [reflexivity|split; [|split; [reflexivity|reflexivity]]]);
      first [eapply frame_inc; eassumption | apply heap_frame_refl].
  - (* ADec *) destruct (dec_obj h o) as [[h2 [|]]|] eqn:E; inversion H; subst; (split; [reflexivity|split; [|split; [reflexivity|reflexivity]]]);
      first [eapply frame_dec; eassumption | apply heap_frame_refl].
  - (* ADecKeep *) destruct (dec_keep h o) eqn:E; inversion H; subst; (split; [reflexivity|split; [|split; [reflexivity|reflexivity]]]);
      first [eapply frame_dec_keep; eassumption | apply heap_frame_refl].
  - (* ATake *) destruct (write_slot h stk l None) as [h1 stk1] eqn:E. inversion H; subst. fold (dec_of (read_slot h stk l)).
    split; [reflexivity|split; [eapply frame_write; eauto|split; [|reflexivity]]]. rewrite slabs_of_app, slabs_of_dec_of. reflexivity.
  - (* AUntag *) destruct (read_slot h stk l) as [[q [|]]|] eqn:Er.
    + destruct (write_slot h stk l (Some (q, false))) as [h1 stk1] eqn:E. inversion H; subst.
      split; [reflexivity|split; [eapply frame_write; eauto|split; reflexivity]].
    + inversion H; subst. split; [reflexivity|split; [apply heap_frame_refl|split; reflexivity]].
    + inversion H; subst. split; [reflexivity|split; [apply heap_frame_refl|split; reflexivity]].
  - (* AStore *) destruct (write_slot h stk l v) as [h1 stk1] eqn:E. inversion H; subst. fold (dec_of (read_slot h stk l)).
    split; [reflexivity|split; [eapply frame_write; eauto|split; [|reflexivity]]]. rewrite slabs_of_app, slabs_of_dec_of. reflexivity.
  - (* ARel *) destruct (is_releasing (get_obj h o)) eqn:Er; cbn [negb] in H;
      [|inversion H; subst; split; [reflexivity|split; [apply heap_frame_refl|split; reflexivity]]].
    destruct (n <? length (o_mem (get_obj h o))) eqn:En.
    + inversion H; subst. fold (dec_of (nth (rel_index (get_obj h o) n) (o_mem (get_obj h o)) None)).
      split; [reflexivity|split; [apply frame_upd; split; auto|split; [|reflexivity]]]. rewrite slabs_of_app, slabs_of_dec_of. reflexivity.
    + apply Nat.ltb_ge in En. destruct (Hpf eq_refl) as [Hx|Hx]; [lia|]. rewrite Hx in H. inversion H; subst.
      split; [reflexivity|split; [|split; reflexivity]]. apply frame_upd. split; auto. intros Hp. cbn in Hp. congruence.
Qed.


Lemma slabs_of_reset : forall l q, slabs_of (reset_acts l q) = [].
Proof. intros l [[y [|]]|]; reflexivity. Qed.

Lemma slabs_of_setref : forall l q p c src, slabs_of (setref_acts l q p c src) = [].
Proof.
  intros l q p c src. unfold setref_acts. destruct p as [o|]; [|apply slabs_of_reset].
  destruct (opt_eqb (ptr q) (Some o)).
  - destruct (counting q), c; reflexivity.
  - unfold take_acts. destruct c; destruct q as [[y [|]]|]; reflexivity.
Qed.

Lemma slabs_of_cast : forall l q p c src, slabs_of (castassign_acts l q p c src) = [].
Proof. intros l q p c src. unfold castassign_acts. destruct p as [o|]; [destruct c; reflexivity|apply slabs_of_reset]. Qed.

Lemma begin_frame : forall s t stk op prog h' stk' todo' ok, inv1 K s -> t < length (s_thr s) ->
  thr s t = mkThr stk [] (op :: prog) -> prog_ok op = true ->
  begin_op K (s_heap s) stk op = (h', stk', todo', ok) ->
  heap_frame (s_heap s) h' /\ slabs_of todo' = [].
Proof.
  intros s t stk op prog h' stk' todo' ok I Ht E Hop Hb.
  destruct op as [i pooled|dst src|dst src|dst src|l|a b|dst src|i v|]; cbn [begin_op] in Hb; try discriminate.
  2,3,6: (* OAssign, OAlias, OConstCast: the heap stays, the pending work is a SetRef, Reset or cast *)
    destruct (resolve_r (s_heap s) stk src) as [[rs p]|]; [destruct (resolve_w (s_heap s) stk dst (ptr p)) as [[rd q]|]|];
    injection Hb as <- <- <- <-; (split; [apply heap_frame_refl|]); auto using slabs_of_setref, slabs_of_cast.
  - (* ONew *) destruct (i <? length stk); [|injection Hb as <- <- <- <-; split; [apply heap_frame_refl|reflexivity]].
    destruct pooled; injection Hb as <- <- <- <-.
    + split; [apply heap_frame_refl|reflexivity].
    + split; [|exact (slabs_of_setref (RStk i) (nth i stk None) (Some (length (s_heap s))) true None)]. split; [rewrite app_length; lia|]. split.
      * intros x Hx. destruct (Nat.eq_dec x (length (s_heap s))) as [->|Hne].
        -- unfold get_obj. rewrite nth_app_new. reflexivity.
        -- unfold get_obj. rewrite nth_overflow by (rewrite app_length; cbn; lia). reflexivity.
      * intros x Hx. unfold get_obj. rewrite app_nth1 by auto. apply obj_frame_refl.
  - (* OReset *) destruct (resolve_w (s_heap s) stk l None) as [[rd q]|]; injection Hb as <- <- <- <-; split; try apply heap_frame_refl; auto.
    apply slabs_of_reset.
  - (* OSwap *) destruct (begin_swap K Hb) as (-> & [(-> & ->)|(ra & rb & h1 & stk1 & _ & _ & _ & _ & _ & Hw1 & Hw2)]);
      (split; [|reflexivity]); [apply heap_frame_refl|]. eapply heap_frame_trans; eapply frame_write; eauto.
  - (* OSetVal *) destruct (nth i stk None) as [[q [|]]|] eqn:Eq; try (injection Hb as <- <- <- <-; split; [apply heap_frame_refl|reflexivity]).
    destruct (o_cnt (get_obj (s_heap s) q) =? 1); injection Hb as <- <- <- <-; (split; [|reflexivity]); [|apply heap_frame_refl].
    assert (Hq' : nth i (t_stk (thr s t)) None = Some (q, true)) by (rewrite E; auto).
    destruct (held_live K s t i q I Ht Hq') as (Hl & _).
    apply frame_upd. split; auto. intros Hp. cbn. split; auto. intros Hnl. unfold hobj in Hl. congruence.
  - (* ODrain *) injection Hb as <- <- <- <-. split; [apply heap_frame_refl|reflexivity].
Qed.


(* ---- the pool-free steps ---- *)

Lemma plink_of_frame : forall s t stk todo prog stk' todo' prog' h',
  plink s -> t < length (s_thr s) -> thr s t = mkThr stk todo prog ->
  heap_frame (s_heap s) h' -> slabs_of todo' = slabs_of todo ->
  plink (with_thr s t (mkThr stk' todo' prog') h' (s_pool s)).
Proof.
  intros s t stk todo prog stk' todo' prog' h' P Ht E (F1 & F2 & F3) Hs.
  apply (plink_frame s); auto.
  apply pend_same; auto. rewrite E. exact Hs.
Qed.

(* ---- slab deletion ---- *)

Lemma pend_ok_tail : forall hlen sd l, pend_ok hlen (sd :: l) -> pend_ok hlen l.
Proof.
  intros hlen sd l (H1 & H2 & H3). split; [inversion H1; auto|]. split; [inversion H2; auto|].
  intros a b x Ia Ib. apply H3; right; auto.
Qed.

Lemma pend_head_disjoint : forall hlen sd l x, 1 <= N -> pend_ok hlen (sd :: l) -> owns N sd x = true -> ~ owned_by l x.
Proof.
  intros hlen sd l x HN (H1 & H2 & H3) Ho (sd' & Hin & Ho'). cbn in H2. inversion H2 as [|b bs Hni Hnd]; subst.
  apply Hni. rewrite (H3 sd sd' x (or_introl eq_refl) (or_intror Hin) Ho Ho'). apply in_map; auto.
Qed.

Lemma plink_slabdel : forall s t stk sd rest prog, 1 <= N ->
  plink s -> t < length (s_thr s) -> thr s t = mkThr stk (ASlabDel sd :: rest) prog ->
  range_all (s_heap s) (sl_base sd) N is_pooled_st = true /\
  plink (with_thr s t (mkThr stk rest prog) (set_range (s_heap s) (sl_base sd) N (fun ob => set_st ob Dead)) (s_pool s)).
Proof.
  intros s t stk sd rest prog HN P Ht E.
  set (h' := set_range (s_heap s) (sl_base sd) N (fun ob => set_st ob Dead)).
  set (s' := with_thr s t (mkThr stk rest prog) h' (s_pool s)).
  assert (HP : Permutation (pend s) (sd :: pend s')).
  { pose proof (pend_with s t (mkThr stk rest prog) h' (s_pool s) Ht) as H.
    fold s' in H. rewrite E in H. cbn [t_todo slabs_of] in H.
    apply Permutation_sym, (Permutation_app_inv_r (slabs_of rest)). eapply Permutation_trans; [|exact H]. apply Permutation_middle. }
  assert (Hown := fun x => owned_cons sd _ _ x HP).
  split.
  - (* every object of the slab is pooled *)
    assert (G : forall n, n <= N -> range_all (s_heap s) (sl_base sd) n is_pooled_st = true).
    { induction n as [|n IH]; intros Hn; cbn; auto. rewrite IH by lia. rewrite andb_true_r.
      assert (Hq : o_st (hobj s (sl_base sd + n)) = Pooled) by (apply (pl_pend s P), Hown; left; apply owns_spec; lia).
      unfold hobj in Hq. unfold is_pooled_st. rewrite Hq. reflexivity. }
    apply G; auto.
  - (* its objects die and are owned by nothing any more *)
    apply plink_olink in P as P'. destruct P' as (P1 & P2 & PO).
    assert (P2' : pend_ok (length (s_heap s)) (sd :: pend s')) by (eapply pend_ok_perm; eauto).
    assert (Hlen : length (s_heap s') = length (s_heap s)) by apply set_range_length.
    apply plink_olink. rewrite Hlen. change (s_pool s') with (s_pool s). split; auto. split; [eapply pend_ok_tail; eauto|].
    intros x. change (hobj s' x) with (get_obj h' x). unfold h'. rewrite set_range_get by auto. fold (owns N sd x).
    destruct (owns N sd x) eqn:Eo.
    + assert (Hnp : ~ owned_by (pend s') x) by (eapply pend_head_disjoint; eauto).
      assert (Hnl : ~ owned_by (p_slabs (s_pool s)) x) by (apply (pl_cross s P x), Hown; auto).
      split; [tauto|]. split; [intros H; apply pfree_owned in H; tauto|]. split; [intros H; apply pused_owned in H; tauto|].
      split; [tauto|]. split; [intros _ _ Hd; destruct Hd; reflexivity|intros H; apply owned_app in H; tauto].
    + apply (olink_same (PO x)); [|reflexivity|reflexivity|auto].
      rewrite Hown. split; auto. intros [|]; [congruence|auto].
Qed.


(* ---- Drain ---- *)

Lemma slabs_of_map : forall dels, slabs_of (map ASlabDel dels) = dels.
Proof. induction dels as [|d ds IH]; cbn; auto. rewrite IH; auto. Qed.

Lemma nodup_app : forall A (a b : list A), NoDup a -> NoDup b -> (forall x, In x a -> In x b -> False) -> NoDup (a ++ b).
Proof.
  induction a as [|h t IH]; intros b Ha Hb Hd; cbn; auto. inversion Ha; subst. constructor.
  - intros Hin. apply in_app_or in Hin. destruct Hin; auto. apply (Hd h); auto. left; auto.
  - apply IH; auto. intros x I1 I2. apply (Hd x); auto. right; auto.
Qed.

(* adding slabs taken out of the list (all their objects are free there) to the pending ones *)
Lemma pend_ok_add : forall s dels, 1 <= N -> plink s ->
  Forall (fun sd => sl_base sd + N <= length (s_heap s)) dels -> NoDup (map sl_base dels) ->
  (forall s1 s2 x, In s1 dels -> In s2 dels -> owns N s1 x = true -> owns N s2 x = true -> sl_base s1 = sl_base s2) ->
  (forall sd x, In sd dels -> owns N sd x = true -> owned_by (p_slabs (s_pool s)) x) ->
  pend_ok (length (s_heap s)) (dels ++ pend s).
Proof.
  intros s dels HN P Hb Hnd Huniq Hlisted. destruct (pl_pendok s P) as (A1 & A2 & A3).
  assert (Hx : forall sd sd' x, In sd dels -> In sd' (pend s) -> owns N sd x = true -> owns N sd' x = true -> False).
  { intros sd sd' x I1 I2 O1 O2. apply (pl_cross s P x); [exists sd'; auto|eapply Hlisted; eauto]. }
  split; [apply Forall_app; auto|]. split.
  - rewrite map_app. apply nodup_app; auto.
    intros b I1 I2. apply in_map_iff in I1, I2. destruct I1 as (sd & E1 & I1). destruct I2 as (sd' & E2 & I2).
    apply (Hx sd sd' b I1 I2); apply owns_spec; lia.
  - intros a b x Ia Ib Oa Ob. apply in_app_or in Ia, Ib. destruct Ia as [Ia|Ia], Ib as [Ib|Ib]; eauto.
    + exfalso; eapply Hx; eauto.
    + exfalso; eapply (Hx b a); eauto.
Qed.


Lemma nodup_map_of_inj : forall A B (f : A -> B) l, NoDup l -> (forall a b, In a l -> In b l -> f a = f b -> a = b) -> NoDup (map f l).
Proof.
  induction l as [|h t IH]; intros Hn Hinj; cbn; [constructor|]. inversion Hn; subst. constructor.
  - intros Hin. apply in_map_iff in Hin. destruct Hin as (x & E & Hx).
    assert (x = h) by (apply Hinj; auto; [right; auto|left; auto]). subst. auto.
  - apply IH; auto. intros a b Ia Ib. apply Hinj; right; auto.
Qed.

Lemma plink_drain : forall s t stk prog p' dels, 1 <= N ->
  plink s -> t < length (s_thr s) -> thr s t = mkThr stk [ADrain] prog ->
  pool_drain N (s_pool s) = (p', dels) ->
  plink (with_thr s t (mkThr stk (map ASlabDel dels ++ []) prog) (s_heap s) p').
Proof.
  intros s t stk prog p' dels HN P Ht E Hd. pose proof P as [P1 P2 P2b P3 P4 P5 P6 P7].
  pose proof (pool_drain_spec N (length (s_heap s)) (s_pool s) HN P1) as Hspec. rewrite Hd in Hspec.
  destruct Hspec as (D1 & D2 & D3 & D4 & D5 & D6 & D7 & D8).
  set (s' := with_thr s t (mkThr stk (map ASlabDel dels ++ []) prog) (s_heap s) p').
  assert (HP : Permutation (pend s') (dels ++ pend s)).
  { apply pend_add; auto. rewrite E. cbn [t_todo slabs_of]. rewrite !app_nil_r. apply slabs_of_map. }
  assert (Hdels_listed : forall sd x, In sd dels -> owns N sd x = true -> owned_by (p_slabs (s_pool s)) x).
  { intros sd x I O. apply pfree_owned. destruct (D3 sd I) as (_ & H). auto. }
  assert (Hnd : NoDup (map sl_base dels)).
  { apply nodup_map_of_inj.
    - eapply NoDup_map_inv; eauto.
    - intros a b Ia Ib Eb. apply (D8 a b (sl_base a)); auto; apply owns_spec; lia. }
  assert (Hok : pend_ok (length (s_heap s)) (dels ++ pend s)).
  { apply pend_ok_add; auto.
    - apply Forall_forall. intros sd I. destruct (D3 sd I); auto.
    - intros s1 s2 x I1 I2 O1 O2. rewrite (D8 s1 s2 x); auto. }
  assert (Hown' : forall x, owned_by (pend s') x <-> owned_by dels x \/ owned_by (pend s) x).
  { intros x. rewrite <- owned_app. split; apply owned_perm; auto. apply Permutation_sym; auto. }
  assert (Hlisted' : forall x, owned_by (p_slabs p') x -> owned_by (p_slabs (s_pool s)) x /\ ~ owned_by dels x).
  { intros x Hx. destruct (owned_free_or_used _ x Hx) as [F|U].
    - apply D5 in F. destruct F as (F & Hno). split; [apply pfree_owned; auto|]. intros (sd & I & O). rewrite (Hno sd I) in O. discriminate.
    - apply D4 in U. split; [apply pused_owned; auto|]. intros (sd & I & O). destruct (D3 sd I) as (_ & H).
      apply (pfree_pused_excl N (length (s_heap s)) (p_nextid (s_pool s)) (p_slabs (s_pool s)) x (pool_wf_cwf P1)); auto. }
  constructor; unfold s'; cbn [s_pool s_heap with_thr]; fold s'.
  - exact D1.
  - eapply pend_ok_perm; [apply Permutation_sym; eauto|auto].
  - intros x Hx Hl. destruct (Hlisted' x Hl) as (A & B). apply Hown' in Hx. destruct Hx as [Hx|Hx]; [tauto|]. apply (P2b x); auto.
  - intros x Hx. apply D5 in Hx. apply P3. tauto.
  - intros x Hx. apply D4 in Hx. apply P4; auto.
  - intros x Hx. apply Hown' in Hx. destruct Hx as [(sd & I & O)|Hx]; [|apply P5; auto].
    destruct (D3 sd I) as (_ & H). apply P3; auto.
  - intros x Hx Hp Hdd. specialize (P6 x Hx Hp Hdd). apply owned_app in P6. apply owned_app. destruct P6 as [A|A].
    + left. apply Hown'. auto.
    + destruct (owned_free_or_used _ x A) as [F|U].
      * destruct (D6 x F) as [F'|(sd & I & O)]; [right; apply pfree_owned; auto|left; apply Hown'; left; exists sd; auto].
      * right. apply pused_owned. apply D4; auto.
  - intros x Hx. apply P7. apply owned_app in Hx. apply owned_app. destruct Hx as [A|A].
    + apply Hown' in A. destruct A as [(sd & I & O)|A]; [right; eapply Hdels_listed; eauto|left; auto].
    + right. apply Hlisted'; auto.
Qed.


(* ---- ReleaseObject ---- *)

Lemma releasing_is_used : forall s o, plink s -> o < length (s_heap s) ->
  is_releasing (hobj s o) = true -> o_pooled (hobj s o) = true -> pused N (p_slabs (s_pool s)) o.
Proof.
  intros s o P Ho Hr Hp. unfold is_releasing in Hr. destruct (o_st (hobj s o)) eqn:Est; try discriminate.
  assert (Hnd : o_st (hobj s o) <> Dead) by congruence.
  pose proof (pl_cover s P o Ho Hp Hnd) as Hc. apply owned_app in Hc. destruct Hc as [Hc|Hc].
  - pose proof (pl_pend s P o Hc). congruence.
  - destruct (owned_free_or_used _ o Hc) as [F|U]; auto. destruct (pl_free s P o F). congruence.
Qed.

Lemma plink_release : forall s t stk o n rest prog p' del, 1 <= N ->
  plink s -> t < length (s_thr s) -> thr s t = mkThr stk (ARel o n :: rest) prog ->
  o < length (s_heap s) -> is_releasing (hobj s o) = true -> o_pooled (hobj s o) = true ->
  pool_release N (s_pool s) o = (p', del) ->
  plink (with_thr s t (mkThr stk (match del with Some sd => ASlabDel sd :: rest | None => rest end) prog)
           (upd (s_heap s) o (set_st (set_val (hobj s o) 0) Pooled)) p').
Proof.
  intros s t stk o n rest prog p' del HN P Ht E Ho Hr Hp Hrel.
  pose proof (releasing_is_used s o P Ho Hr Hp) as Hused.
  pose proof (pool_release_spec N (length (s_heap s)) (s_pool s) o HN (pl_wf s P) Hused) as Hspec. rewrite Hrel in Hspec.
  destruct Hspec as (R1 & R2 & R3). apply plink_olink in P as P'. destruct P' as (P1 & P2 & PO).
  set (todo' := match del with Some sd => ASlabDel sd :: rest | None => rest end).
  set (s' := with_thr s t (mkThr stk todo' prog) (upd (s_heap s) o (set_st (set_val (hobj s o) 0) Pooled)) p').
  assert (Ho_listed : owned_by (p_slabs (s_pool s)) o) by (apply pused_owned; auto).
  assert (Ho_notpend : ~ owned_by (pend s) o) by (intros H; apply (pl_cross s P o H); auto).
  assert (HP : Permutation (pend s') (match del with Some sd => [sd] | None => [] end ++ pend s)).
  { apply pend_add; auto. rewrite E. unfold todo'. destruct del; reflexivity. }
  assert (Hlen : length (s_heap s') = length (s_heap s)) by apply upd_length.
  assert (Hget : forall x, hobj s' x = if x =? o then set_st (set_val (hobj s o) 0) Pooled else hobj s x)
    by (intros; apply get_upd; auto).
  apply plink_olink. rewrite Hlen. change (s_pool s') with p'. split; [exact R1|].
  destruct del as [sd|]; cbn [app] in HP.
  - (* the slab goes with it: its objects are now owned by a pending deletion and by nothing listed *)
    destruct R3 as (S1 & S2 & S3 & S4 & S5).
    assert (Hsd_listed : forall x, owns N sd x = true -> owned_by (p_slabs (s_pool s)) x).
    { intros x Hx. destruct (S3 x Hx) as [->|F]; auto. apply pfree_owned; auto. }
    assert (Hown' := fun x => owned_cons sd _ _ x HP).
    split.
    + eapply pend_ok_perm; [apply Permutation_sym; exact HP|]. apply (pend_ok_add s [sd] HN P); auto.
      * cbn. constructor; [intros []|constructor].
      * intros s1 s2 x [<-|[]] [<-|[]]; auto.
      * intros a x [<-|[]] O; auto.
    + intros x. rewrite Hget. destruct (owns N sd x) eqn:Eo.
      * destruct (S4 x Eo) as (NF & NU). destruct (PO x) as (A & B & C & D & _ & F).
        assert (Hst : o_st (if x =? o then set_st (set_val (hobj s o) 0) Pooled else hobj s x) = Pooled).
        { destruct (Nat.eqb_spec x o) as [->|Hne]; [reflexivity|]. destruct (S3 x Eo) as [|Fr]; [tauto|]. apply B; auto. }
        split; [intros _ H; apply owned_iff in H; tauto|]. split; [tauto|]. split; [tauto|]. split; [auto|]. split.
        -- intros _ _ _. apply owned_app. left. apply Hown'. auto.
        -- intros _. destruct (Nat.eqb_spec x o) as [->|Hne]; [exact Hp|]. apply F. apply owned_app. auto.
      * destruct (Nat.eqb_spec x o) as [->|Hne]; [congruence|]. destruct (S5 x Eo) as (Hf & Hu).
        apply (olink_same (PO x)); auto. rewrite Hown'. split; auto. intros [|]; [congruence|auto].
  - (* the slab stays; o is free again *)
    destruct R3 as (S1 & S2). split; [eapply pend_ok_perm; [apply Permutation_sym; exact HP|exact P2]|].
    intros x. rewrite Hget. destruct (Nat.eqb_spec x o) as [->|Hne].
    + split; [intros H; apply owned_perm with (l' := pend s) in H; tauto|]. split; [cbn; auto|]. split; [|split; [reflexivity|split]].
      * intros H. exfalso. apply (pfree_pused_excl N _ _ _ o (pool_wf_cwf R1)); auto.
      * intros _ _ _. apply owned_app. right. apply pfree_owned; auto.
      * intros _. exact Hp.
    + destruct (S2 x Hne) as (Hf & Hu). apply (olink_same (PO x)); auto.
      apply owned_perm_iff; auto.
Qed.


(* ---- ObtainObject ---- *)

Lemma get_new_pooled : forall h x, length h <= x -> x < length h + N ->
  get_obj (h ++ repeat (fresh_obj K true Pooled) N) x = fresh_obj K true Pooled.
Proof.
  intros h x H1 H2. unfold get_obj. rewrite app_nth2 by lia.
  assert (G : forall n i (a d : obj), i < n -> nth i (repeat a n) d = a).
  { induction n as [|n IH]; intros [|i] a d Hi; cbn; try lia; auto. apply IH; lia. }
  apply G. lia.
Qed.

Lemma plink_obtain : forall s t stk l prog p' o created, 1 <= N ->
  inv1 K s -> plink s -> t < length (s_thr s) -> thr s t = mkThr stk [APoolObt l] prog ->
  pool_obtain N (length (s_heap s)) (s_pool s) = (p', o, created) ->
  let h1 := match created with Some _ => s_heap s ++ repeat (fresh_obj K true Pooled) N | None => s_heap s end in
  is_pooled_st (get_obj h1 o) && is_default (get_obj h1 o) = true /\
  forall stk' todo', slabs_of todo' = [] ->
    plink (with_thr s t (mkThr stk' todo' prog) (upd h1 o (born (get_obj h1 o))) p').
Proof.
  intros s t stk l prog p' o created HN I P Ht E Hobt h1.
  pose proof (pool_obtain_spec N (length (s_heap s)) (s_pool s) HN (pl_wf s P)) as Hspec. rewrite Hobt in Hspec.
  apply plink_olink in P as P'. destruct P' as (P1 & P2 & PO).
  assert (Hpend : forall stk' todo' h2, slabs_of todo' = [] -> Permutation (pend (with_thr s t (mkThr stk' todo' prog) h2 p')) (pend s)).
  { intros stk' todo' h2 Hs. apply pend_same; auto. rewrite E. cbn [t_todo]. rewrite Hs. reflexivity. }
  assert (Hlt_old : forall x, owned_by (pend s ++ p_slabs (s_pool s)) x -> x < length (s_heap s)) by (intros; eapply all_owned_lt; eauto).
  destruct created as [sn|]; unfold obtain_spec in Hspec.
  - (* a new slab: its objects, other than o, are free and pooled *)
    destruct Hspec as (O1 & O2 & O3 & O4 & O5 & O6 & O7).
    assert (Hh1 : length h1 = length (s_heap s) + N) by (unfold h1; rewrite app_length, repeat_length; auto).
    assert (Hnew : forall x, length (s_heap s) <= x -> x < length (s_heap s) + N -> get_obj h1 x = fresh_obj K true Pooled)
      by (intros; unfold h1; apply get_new_pooled; auto).
    split.
    + rewrite Hnew by lia.
      pose proof (all_none_repeat K) as A.
      unfold is_pooled_st, is_default, fresh_obj. cbn [o_cnt o_mem o_val o_st]. rewrite A. reflexivity.
    + intros stk' todo' Hs. set (s' := with_thr s t (mkThr stk' todo' prog) (upd h1 o (born (get_obj h1 o))) p').
      assert (HP : Permutation (pend s') (pend s)) by (apply Hpend; auto).
      assert (Hlen : length (s_heap s') = length (s_heap s) + N) by (unfold s'; cbn [s_heap with_thr]; rewrite upd_length; auto).
      apply plink_olink. rewrite Hlen. change (s_pool s') with p'. split; [exact O1|].
      split; [eapply pend_ok_weaken; [|eapply pend_ok_perm; [apply Permutation_sym; exact HP|exact P2]]; lia|].
      intros x. change (hobj s' x) with (get_obj (upd h1 o (born (get_obj h1 o))) x). rewrite get_upd by lia.
      assert (Hnp : length (s_heap s) <= x -> ~ owned_by (pend s') x).
      { intros Hx H. apply (owned_perm _ _ _ HP) in H. assert (x < length (s_heap s)) by (apply Hlt_old, owned_app; auto). lia. }
      destruct (Nat.eqb_spec x o) as [->|Hne].
      * rewrite Hnew by lia. split; [intros H; destruct (Hnp (proj1 O3) H)|].
        split; [intros H; exfalso; apply (pfree_pused_excl N _ _ _ o (pool_wf_cwf O1)); auto|]. split; [left; reflexivity|].
        split; [intros H; destruct (Hnp (proj1 O3) H)|]. split; [|reflexivity].
        intros _ _ _. apply owned_app. right. apply pused_owned; auto.
      * destruct (O7 x Hne) as (Hf & Hu). destruct (lt_dec x (length (s_heap s))) as [Hl|Hl].
        -- unfold h1. rewrite get_app_old by auto.
           apply (olink_same (PO x)); [apply owned_perm_iff; auto| |exact Hu|auto].
           rewrite Hf. split; auto. intros [|]; auto. lia.
        -- assert (Hnu : ~ pused N (p_slabs p') x).
           { intros H. apply Hu, pused_owned in H. assert (x < length (s_heap s)) by (apply Hlt_old, owned_app; auto). lia. }
           assert (Hfr : pfree N (p_slabs p') x <-> x < length (s_heap s) + N).
           { rewrite Hf. split; [intros [H|H]; [|lia]|intros H; right; lia].
             apply pfree_owned in H. assert (x < length (s_heap s)) by (apply Hlt_old, owned_app; auto). lia. }
           specialize (Hnp (not_lt _ _ Hl)). split; [tauto|].
           destruct (lt_dec x (length (s_heap s) + N)) as [Hl2|Hl2].
           ++ rewrite Hnew by lia. split; [cbn; auto|]. split; [tauto|]. split; [tauto|]. split; [|reflexivity].
              intros _ _ _. apply owned_app. right. apply pfree_owned, Hfr. auto.
           ++ split; [tauto|]. split; [tauto|]. split; [tauto|]. split; [lia|].
              intros H. apply owned_app in H. destruct H as [H|H]; [tauto|apply owned_iff in H; tauto].
  - (* an existing slab: o was free and is in use now *)
    destruct Hspec as (O1 & O2 & O3 & O4 & O5). unfold h1.
    destruct (pl_free s P o O2) as (Est & Eval).
    assert (Ho : o < length (s_heap s)) by (apply Hlt_old, owned_app; right; apply pfree_owned; auto).
    assert (Hnl : is_live (hobj s o) = false) by (unfold is_live; rewrite Est; auto).
    destruct (dead_cnt0 K s o I Hnl) as (Ec & _). destruct (i_mem K s I o Ho) as (_ & Hq). unfold quiet in Hq. rewrite Est in Hq.
    split.
    + unfold is_pooled_st, is_default. unfold hobj in *. rewrite Est, Ec, Eval, Hq. reflexivity.
    + intros stk' todo' Hs. set (s' := with_thr s t (mkThr stk' todo' prog) (upd (s_heap s) o (born (get_obj (s_heap s) o))) p').
      assert (HP : Permutation (pend s') (pend s)) by (apply Hpend; auto).
      assert (Hlen : length (s_heap s') = length (s_heap s)) by (unfold s'; cbn [s_heap with_thr]; apply upd_length).
      apply plink_olink. rewrite Hlen. change (s_pool s') with p'. split; [exact O1|].
      split; [eapply pend_ok_perm; [apply Permutation_sym; exact HP|exact P2]|].
      intros x. change (hobj s' x) with (get_obj (upd (s_heap s) o (born (get_obj (s_heap s) o))) x). rewrite get_upd by auto.
      destruct (Nat.eqb_spec x o) as [->|Hne].
      * assert (Hnp : ~ owned_by (pend s') o).
        { intros H. apply (owned_perm _ _ _ HP) in H. apply (pl_cross s P o H). apply pfree_owned; auto. }
        split; [tauto|]. split; [intros H; exfalso; apply (pfree_pused_excl N _ _ _ o (pool_wf_cwf O1)); auto|].
        split; [left; reflexivity|]. split; [tauto|]. split.
        -- intros _ _ _. apply owned_app. right. apply pused_owned; auto.
        -- intros _. apply (pl_flag s P o). apply owned_app. right. apply pfree_owned; auto.
      * destruct (O5 x Hne) as (Hf & Hu).
        apply (olink_same (PO x)); auto. apply owned_perm_iff; auto.
Qed.


(* ---- every step ---- *)

Theorem step_plink : forall s t, 1 <= N -> inv1 K s -> plink s -> progs_ok s -> t < length (s_thr s) ->
  plink (fst (step N K s t)) /\ bad56 (snd (step N K s t)) = false.
Proof.
  intros s t HN I P HP Ht. unfold step. fold (thr s t).
  pose proof (HP _ (thr_in s t Ht)) as Hprog.
  destruct (thr s t) as [stk todo prog] eqn:E. cbn [t_todo t_stk t_prog] in *.
  destruct todo as [|a rest].
  - destruct prog as [|op prog]; [cbn; auto|].
    destruct (begin_op K (s_heap s) stk op) as [[[h' stk'] todo'] ok] eqn:Hb. cbn [fst snd].
    cbn in Hprog. apply andb_true_iff in Hprog. destruct Hprog as (Hop & _).
    destruct (begin_frame s t stk op prog h' stk' todo' ok I Ht E Hop Hb) as (F & S).
    split; [|reflexivity]. apply (plink_of_frame s t stk [] (op :: prog) stk' todo' prog h' P Ht E F). exact S.
  - pose proof (i_shape K s I t Ht) as Hsh. rewrite E in Hsh. cbn [t_todo] in Hsh.
    assert (Hact : act_ok s stk a) by (pose proof (i_acts K s I t a Ht) as A; rewrite E in A; apply A; left; auto).
    destruct (do_act N K (s_heap s) (s_pool s) stk a rest) as [[[[h' stk'] todo'] p'] ev] eqn:Hdo. cbn [fst snd].
    assert (Hframe : pool_free_act (s_heap s) a ->
              plink (mkSt h' (upd (s_thr s) t (mkThr stk' todo' prog)) p') /\ bad56 ev = false).
    { intros Hpf. destruct (do_act_frame (s_heap s) (s_pool s) stk a rest h' stk' todo' p' ev Hpf Hdo) as (-> & F & S & B).
      split; auto. apply (plink_of_frame s t stk (a :: rest) prog stk' todo' prog h' P Ht E F S). }
    destruct a; try (apply Hframe; exact Logic.I).
    + (* ARel *)
      cbn in Hact. destruct Hact as (Hr & Hn & _).
      destruct (n <? length (o_mem (hobj s o))) eqn:En; [apply Hframe; cbn; intros _; left; apply Nat.ltb_lt; exact En|].
      destruct (o_pooled (hobj s o)) eqn:Ep; [|apply Hframe; cbn; intros _; right; exact Ep].
      cbn [do_act] in Hdo. unfold hobj in Hr, En, Ep. rewrite Hr in Hdo. cbn [negb] in Hdo. rewrite En, Ep in Hdo.
      destruct (pool_release N (s_pool s) o) as [p2 del] eqn:Hrel.
      pose proof (plink_release s t stk o n rest prog p2 del HN P Ht E (releasing_lt _ _ Hr) Hr Ep Hrel) as G.
      destruct del as [sd|]; inversion Hdo; subst; split; auto.
    + (* APoolObt *)
      pose proof (single_rest _ _ Hsh Logic.I) as ->.
      cbn [do_act] in Hdo. destruct (pool_obtain N (length (s_heap s)) (s_pool s)) as [[p2 o] created] eqn:Hobt.
      destruct (plink_obtain s t stk l prog p2 o created HN I P Ht E Hobt) as (Hok & G). cbn zeta in Hok, G.
      rewrite Hok in Hdo. inversion Hdo; subst. split; [|reflexivity]. apply G.
      rewrite slabs_of_app. cbn [slabs_of]. rewrite app_nil_r.
      exact (slabs_of_setref l (read_slot (match created with Some _ => s_heap s ++ repeat (fresh_obj K true Pooled) N | None => s_heap s end) stk' l) (Some o) true None).
    + (* ADrain *)
      pose proof (single_rest _ _ Hsh Logic.I) as ->.
      cbn [do_act] in Hdo. destruct (pool_drain N (s_pool s)) as [p2 dels] eqn:Hdr. inversion Hdo; subst.
      split; [|reflexivity]. apply (plink_drain s t stk' prog p' dels HN P Ht E Hdr).
    + (* ASlabDel *)
      destruct (plink_slabdel s t stk s0 rest prog HN P Ht E) as (Hall & G).
      cbn [do_act] in Hdo. rewrite Hall in Hdo. inversion Hdo; subst. split; [exact G|reflexivity].
Qed.

(* ---- all reachable states ---- *)

Lemma init_plink : forall max stksize progs, plink (init_state max stksize progs).
Proof.
  intros max stksize progs. unfold init_state.
  assert (Hpend : pend (mkSt [] (map (fun pr => mkThr (repeat None stksize) [] pr) progs) (empty_pool max)) = []).
  { unfold pend; cbn [s_thr]. induction progs as [|p ps IH]; cbn; auto. }
  constructor; cbn [s_heap s_pool]; rewrite ?Hpend.
  - apply empty_pool_wf.
  - split; [constructor|]. split; [constructor|]. intros sd sd' x [].
  - intros x (sd & [] & _).
  - intros x (sd & [] & _).
  - intros x (sd & [] & _).
  - intros x (sd & [] & _).
  - intros x Hx. cbn in Hx. lia.
  - intros x (sd & [] & _).
Qed.

Theorem reachable_plink : forall s0 s, 1 <= N -> inv1 K s0 -> plink s0 -> progs_ok s0 -> reachable N K s0 s -> plink s.
Proof.
  intros s0 s HN I0 P0 G0 H. induction H as [|s t H IH Ht]; auto.
  destruct (reachable_inv1 N K s0 s I0 G0 H) as (I & G). destruct (step_plink s t HN I IH G Ht); auto.
Qed.

(* C10, pooled objects: in every reachable state the pool's own bookkeeping is consistent (pool_wf: the
   conditions of PerformSanityCheck, _curPoolSize = free nodes, disjoint slabs), a node is in a free
   list exactly when its object is in the pooled state with default payload (and, by the counting
   invariant, count zero and null members), every object in use belongs to a listed slab, the objects
   of a slab waiting for deletion are all pooled and belong to no listed slab; and no step obtains an
   object that is not free and default, or deletes a slab holding an object in use. *)
Theorem pool_inv : forall s0 s, 1 <= N -> inv1 K s0 -> plink s0 -> progs_ok s0 -> reachable N K s0 s ->
  plink s /\ (forall t, t < length (s_thr s) -> bad56 (snd (step N K s t)) = false).
Proof.
  intros s0 s HN I0 P0 G0 H. pose proof (reachable_plink s0 s HN I0 P0 G0 H) as P.
  destruct (reachable_inv1 N K s0 s I0 G0 H) as (I & G). split; auto.
  intros t Ht. destruct (step_plink s t HN I P G Ht); auto.
Qed.

(* an object handed out by ObtainObject is in the freshly-constructed state and was in nobody's hands:
   every free node's object is pooled, count 0, all member references null, payload 0, and no counting
   reference anywhere points to it *)
Theorem obtain_fresh : forall s0 s x, 1 <= N -> inv1 K s0 -> plink s0 -> progs_ok s0 -> reachable N K s0 s ->
  pfree N (p_slabs (s_pool s)) x ->
  o_st (hobj s x) = Pooled /\ is_default (hobj s x) = true /\ units x s = 0.
Proof.
  intros s0 s x HN I0 P0 G0 H Hx. pose proof (reachable_plink s0 s HN I0 P0 G0 H) as P.
  destruct (reachable_inv1 N K s0 s I0 G0 H) as (I & G).
  destruct (pl_free s P x Hx) as (Est & Eval).
  assert (Hnl : is_live (hobj s x) = false) by (unfold is_live; rewrite Est; auto).
  assert (Hlt : x < length (s_heap s)) by (eapply all_owned_lt; eauto; apply owned_app; right; apply pfree_owned; auto).
  destruct (dead_cnt0 K s x I Hnl) as (Ec & _). destruct (i_mem K s I x Hlt) as (_ & Hq). unfold quiet in Hq. rewrite Est in Hq.
  split; auto. split; [unfold is_default; rewrite Ec, Eval, Hq; reflexivity|]. apply (i_nolive K s I x Hnl).
Qed.

(* a slab is deleted only when all its objects are pooled (unreferenced, default) and no thread can obtain from it *)
Theorem slab_delete_safe : forall s0 s t sd x, 1 <= N -> inv1 K s0 -> plink s0 -> progs_ok s0 -> reachable N K s0 s ->
  t < length (s_thr s) -> In (ASlabDel sd) (t_todo (thr s t)) -> owns N sd x = true ->
  o_st (hobj s x) = Pooled /\ units x s = 0 /\ ~ owned_by (p_slabs (s_pool s)) x.
Proof.
  intros s0 s t sd x HN I0 P0 G0 H Ht Hin Ho. pose proof (reachable_plink s0 s HN I0 P0 G0 H) as P.
  destruct (reachable_inv1 N K s0 s I0 G0 H) as (I & G).
  assert (Hp : owned_by (pend s) x).
  { exists sd. split; auto. unfold pend. apply in_concat. exists (slabs_of (t_todo (thr s t))). split.
    - apply in_map_iff. exists (thr s t). split; auto. apply thr_in; auto.
    - clear - Hin. induction (t_todo (thr s t)) as [|a r IH]; [destruct Hin|].
      destruct Hin as [->|Hin]; [left; auto|]. destruct a; cbn; auto. }
  pose proof (pl_pend s P x Hp) as Est. split; auto. split; [|apply (pl_cross s P x Hp)].
  apply (i_nolive K s I x). unfold is_live. rewrite Est. reflexivity.
Qed.


(* thread creation does not disturb the link *)
Theorem fork_plink : forall s progs, plink s -> plink (fork_state s progs).
Proof.
  intros s progs P. apply (plink_frame s); auto.
  - unfold pend, fork_state; cbn [s_thr]. rewrite map_app, concat_app.
    assert (E : concat (map (fun t => slabs_of (t_todo t)) (map (fun pr => mkThr (t_stk (nth 0 (s_thr s) dthr)) [] pr) progs)) = []).
    { induction progs as [|p ps IH]; cbn; auto. }
    rewrite E, app_nil_r. apply Permutation_refl.
  - unfold fork_state; cbn [s_heap]. rewrite bump_length. auto.
  - intros x Hx. unfold hobj, fork_state, get_obj; cbn [s_heap]. rewrite nth_overflow by (rewrite bump_length; lia). reflexivity.
  - intros x Hx. unfold hobj, fork_state, get_obj; cbn [s_heap]. rewrite bump_nth by auto. split; auto.
Qed.

End PoolLink.
