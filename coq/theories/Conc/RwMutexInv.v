(* C18 -- the inductive invariant of the ReaderWriterMutex LTS: the table is either in "read mode" (no write
   recursion anywhere, total = 0) or in "write mode" (exactly one executing thread, whose write recursion count is
   the total); every thread's place in the code agrees with what the tables say about it. *)
From Coq Require Import List Arith Bool Lia.
Import ListNotations.
From Muscle Require Import Conc.RwMutexModel Conc.RwMutexProofs.

(* ---- what the tables must say about a thread, given where it is in the code ---- *)

Definition mk_ent (a b : nat) : option ent :=
  match a, b with
  | 0, 0 => None
  | _, _ => Some (mkEnt a b)
  end.

Definition flag (s : status) : nat := match s with SOk => 1 | _ => 0 end.

(* the recursion counts the thread must have in _executingThreads right now *)
Definition hold (l : loc) : nat * nat :=
  match l_stk l with
  | [] => (l_hro l, l_hrw l)
  | FDrop n i _ :: _ => (n - i, 0)
  | FInner _ :: _ => (0, 0)
  | FRelock _ i lrw :: _ => (i, flag lrw)
  end.

Definition exp_ent (l : loc) : option ent := mk_ent (fst (hold l)) (snd (hold l)).

Definition inwr (l : loc) : bool := match l_act l with AParkRO _ | AWokeRO _ _ => true | _ => false end.
Definition inww (l : loc) : bool := match l_act l with AParkRW _ | AWokeRW _ _ => true | _ => false end.

(* purely local well-formedness of a thread's control state *)
Definition wf (l : loc) : Prop :=
  match l_stk l with
  | [] =>
      match l_act l with
      | AIdle => l_op l = None
      | AEnterRO d => l_op l = Some (OLockRO d)
      | AEnterRW d => l_op l = Some (OLockRW d)
      | AEnterUnRO => l_op l = Some OUnlockRO
      | AEnterUnRW => l_op l = Some OUnlockRW
      | AParkRO d => l_op l = Some (OLockRO d) /\ d <> Try /\ l_hro l = 0 /\ l_hrw l = 0
      | AWokeRO d ok => l_op l = Some (OLockRO d) /\ d <> Try /\ (ok = false -> d = Timed) /\ l_hro l = 0 /\ l_hrw l = 0
      | AParkRW d => l_op l = Some (OLockRW d) /\ d <> Try /\ l_hro l = 0 /\ l_hrw l = 0
      | AWokeRW d ok => l_op l = Some (OLockRW d) /\ d <> Try /\ (ok = false -> d = Timed) /\ l_hro l = 0 /\ l_hrw l = 0
      end
  | [FDrop n i d] =>
      l_act l = AEnterUnRO /\ i < n /\ l_hro l = n /\ l_hrw l = 0 /\ l_op l = Some (OLockRW d)
  | [FInner n] =>
      0 < n /\ l_hro l = n /\ l_hrw l = 0 /\
      exists d, l_op l = Some (OLockRW d) /\
                (l_act l = AEnterRW d \/
                 (d <> Try /\ (l_act l = AParkRW d \/ exists ok, l_act l = AWokeRW d ok /\ (ok = false -> d = Timed))))
  | [FRelock n i lrw] =>
      i < n /\ l_hro l = n /\ l_hrw l = 0 /\ (lrw = SOk \/ lrw = STimedOut) /\ (exists d, l_op l = Some (OLockRW d)) /\
      (l_act l = AEnterRO Never \/
       (i = 0 /\ lrw = STimedOut /\ (l_act l = AParkRO Never \/ l_act l = AWokeRO Never true)))
  | _ => False
  end.

Record linv (g : gst) (t : tid) (l : loc) : Prop := mkLinv {
  li_wf : wf l;
  li_ex : find t (g_exec g) = exp_ent l;
  li_wr : memk t (g_wr g) = inwr l;
  li_ww : memk t (g_ww g) = inww l
}.

Definition read_mode (g : gst) : Prop := g_total g = 0 /\ forall t e, In (t, e) (g_exec g) -> e_rw e = 0.
Definition write_mode (g : gst) : Prop := exists t e, g_exec g = [(t, e)] /\ e_rw e = g_total g /\ 0 < g_total g.
Definition mode (g : gst) : Prop := read_mode g \/ write_mode g.

Definition inv (s : sys) : Prop := mode (s_g s) /\ forall t, linv (s_g s) t (s_l s t).

(* ---- small facts ---- *)

Lemma mk_ent_some : forall a b e, mk_ent a b = Some e -> e = mkEnt a b /\ 0 < a + b.
Proof. intros [|a] [|b] e H; cbn in H; inversion H; split; auto; lia. Qed.

Lemma mk_ent_none : forall a b, mk_ent a b = None -> a = 0 /\ b = 0.
Proof. intros [|a] [|b] H; cbn in H; try discriminate; auto. Qed.

Lemma mk_ent_pos : forall a b, 0 < a + b -> mk_ent a b = Some (mkEnt a b).
Proof. intros [|a] [|b] H; cbn; auto; lia. Qed.

Lemma mk_ent_S_l : forall a b, mk_ent (S a) b = Some (mkEnt (S a) b).
Proof. intros. reflexivity. Qed.

Lemma mk_ent_S_r : forall a b, mk_ent a (S b) = Some (mkEnt a (S b)).
Proof. intros [|a] b; reflexivity. Qed.

Lemma ent_eta : forall e, mkEnt (e_ro e) (e_rw e) = e.
Proof. intros [a b]. reflexivity. Qed.

(* ---- the mode invariant is preserved by every critical section ---- *)

Lemma mode_shape : forall g g', same_shape g g' -> mode g -> mode g'.
Proof.
  intros g g' [Ht He _ _ _ _ _] [[H0 Hr]|(t & e & Hx & Hw & Hp)].
  - left. split; [congruence|]. rewrite He. auto.
  - right. exists t, e. rewrite He, Ht. auto.
Qed.

Lemma write_find : forall g t e, write_mode g -> find t (g_exec g) = Some e -> g_exec g = [(t, e)] /\ e_rw e = g_total g /\ 0 < g_total g.
Proof.
  intros g t e (t0 & e0 & Hx & Hw & Hp) Hf. rewrite Hx in Hf. apply find_single in Hf. destruct Hf; subst. auto.
Qed.

Lemma read_total : forall g, read_mode g -> g_total g = 0.
Proof. intros g [H _]; auto. Qed.

Lemma write_total : forall g, write_mode g -> g_total g <> 0.
Proof. intros g (t0 & e0 & Hx & Hw & Hp). lia. Qed.

Lemma write_exec_nonnil : forall g, write_mode g -> is_nil (g_exec g) = false.
Proof. intros g (t0 & e0 & Hx & Hw & Hp). rewrite Hx. reflexivity. Qed.

Lemma andb_eqb0 : forall a b, Nat.eqb a 0 && Nat.eqb b 0 = true -> a = 0 /\ b = 0.
Proof. intros a b H. apply andb_prop in H. destruct H as [Ha Hb]. apply Nat.eqb_eq in Ha, Hb. auto. Qed.

Lemma andb_eqb0_false : forall a b, Nat.eqb a 0 && Nat.eqb b 0 = false -> 0 < a + b.
Proof.
  intros a b H. destruct a, b; cbn in H; try discriminate; lia.
Qed.

Section P.
Variable pref : bool.

(* ---- the shape of a critical section of thread t: an update of t's own entries (a new entry in a queue only when
   admission was refused), then possibly t leaving a queue, then notifications ---- *)

(* store the counts (a, b) for thread t: an entry with both counts zero is removed (cf. mk_ent) *)
Definition put (t : tid) (a b : nat) (l : list (tid * ent)) : list (tid * ent) :=
  match mk_ent a b with Some v => setv t v l | None => remove t l end.

Lemma put_pos : forall t a b l, 0 < a + b -> put t a b l = setv t (mkEnt a b) l.
Proof. intros. unfold put. rewrite mk_ent_pos by assumption. reflexivity. Qed.

Lemma put_if : forall t a b l,
  (if Nat.eqb b 0 && Nat.eqb a 0 then remove t l else setv t (mkEnt a b) l) = put t a b l.
Proof. intros t [|a] [|b] l; reflexivity. Qed.

Lemma find_put : forall t a b l, find t (put t a b l) = mk_ent a b.
Proof. intros. unfold put. destruct (mk_ent a b); [apply find_setv_same | apply find_remove_same]. Qed.

Inductive own_upd (t : tid) (g : gst) : gst -> Prop :=
| ou_same : own_upd t g g
| ou_exec tot a b p e : find t (g_exec g) = Some e -> tot = g_total g + b - e_rw e ->
    (e_rw e < b -> 0 < e_rw e \/ length (g_exec g) = 1) ->
    own_upd t g (mkG tot (put t a b (g_exec g)) (g_wr g) (g_ww g) p)
| ou_admit_r p : ok_readers pref g = true ->
    own_upd t g (mkG (g_total g) (setv t (mkEnt 1 0) (g_exec g)) (g_wr g) (g_ww g) p)
| ou_admit_w p : ok_writer t g = true ->
    own_upd t g (mkG (S (g_total g)) (setv t (mkEnt 0 1) (g_exec g)) (g_wr g) (g_ww g) p)
| ou_park_ro c p : ok_readers pref g = false ->
    own_upd t g (mkG (g_total g) (g_exec g) (setv t c (g_wr g)) (g_ww g) p)
| ou_park_rw c p : ok_writer t g = false ->
    own_upd t g (mkG (g_total g) (g_exec g) (g_wr g) (setv t c (g_ww g)) p).

Definition leaves (t : tid) (g g' : gst) : Prop := g' = leave_wr t g \/ g' = leave_ww t g.

Lemma unlock_rw_tail : forall g1 (c1 c2 c3 : bool) g2 ns,
  (if c1 then (if c2 then notify_all_readers g1 else if c3 then notify_some pref g1 else (g1, [])) else (g1, [])) = (g2, ns) ->
  notified g1 g2.
Proof.
  intros g1 c1 c2 c3 g2 ns E. change g2 with (fst (g2, ns)). rewrite <- E.
  destruct c1; [destruct c2; [right; left; reflexivity | destruct c3; [apply notify_some_cases | left; reflexivity]] | left; reflexivity].
Qed.

Lemma cs_shape : forall t a g g' ns out, cs pref t a g = Some (g', ns, out) ->
  exists g1 g2, own_upd t g g1 /\ (g2 = g1 \/ leaves t g1 g2 /\ g_wr g1 = g_wr g /\ g_ww g1 = g_ww g) /\ notified g2 g'.
Proof.
  intros t a g g' ns out H.
  assert (Same : forall g1, own_upd t g g1 -> exists g1' g2, own_upd t g g1' /\
            (g2 = g1' \/ leaves t g1' g2 /\ g_wr g1' = g_wr g /\ g_ww g1' = g_ww g) /\ notified g2 g1)
    by (intros g1 U; exists g1, g1; unfold notified; auto).
  assert (Note : forall g1 g2 ns2, maybe_notify pref g1 = (g2, ns2) -> notified g1 g2)
    by (intros g1 g2 ns2 E; change g2 with (fst (g2, ns2)); rewrite <- E; apply maybe_notify_cases).
  (* per section: split as the code does, then name the kind of own update ([first] picks the constructor that fits) *)
  destruct a; cbn [cs] in H; try discriminate; injection H as H.
  - unfold enter_ro in H. destruct (find t (g_exec g)) as [e|] eqn:Hf; [|destruct (ok_readers pref g) eqn:Hok; [|destruct d]];
      try destruct (pool_get (g_pool g)); injection H as <- _ _; apply Same;
      first [eapply (ou_exec t g _ (S (e_ro e)) (e_rw e)); [exact Hf | lia | lia] | apply ou_admit_r, Hok
            | apply ou_park_ro, Hok | apply ou_same].
  - unfold enter_rw in H. destruct (find t (g_exec g)) as [e|] eqn:Hf;
      [destruct (Nat.ltb 0 (e_rw e) || Nat.eqb (length (g_exec g)) 1) eqn:Hb | destruct (ok_writer t g) eqn:Hok];
      try destruct d; try destruct (pool_get (g_pool g)); injection H as <- _ _; apply Same;
      first [rewrite <- (put_pos t (e_ro e) (S (e_rw e))) by lia; eapply ou_exec; [exact Hf | lia |];
             apply orb_prop in Hb; rewrite Nat.ltb_lt, Nat.eqb_eq in Hb; intros _; exact Hb
            | apply ou_admit_w, Hok | apply ou_park_rw, Hok | apply ou_same].
  - unfold unlock_ro in H. destruct (find t (g_exec g)) as [e|] eqn:Hf; [|injection H as <- _ _; apply Same, ou_same].
    destruct (e_ro e) as [|r] eqn:Hro; [injection H as <- _ _; apply Same, ou_same|].
    destruct (Nat.eqb r 0 && Nat.eqb (e_rw e) 0) eqn:Hb.
    + apply andb_eqb0 in Hb. destruct Hb as [-> Hb].
      destruct (maybe_notify pref (set_exec g (remove t (g_exec g)))) as [g2 ns2] eqn:E. injection H as <- _ _.
      eexists _, _. split; [|split; [left; reflexivity | eapply Note, E]].
      eapply (ou_exec t g _ 0 0); [exact Hf | lia | lia].
    + apply andb_eqb0_false in Hb. injection H as <- _ _. apply Same.
      unfold set_exec. rewrite <- (put_pos t r (e_rw e)) by lia. eapply ou_exec; [exact Hf | lia | lia].
  - unfold unlock_rw in H. destruct (find t (g_exec g)) as [e|] eqn:Hf; [|injection H as <- _ _; apply Same, ou_same].
    destruct (e_rw e) as [|w] eqn:Hrw; [injection H as <- _ _; apply Same, ou_same|].
    rewrite put_if in H.
    match type of H with context [mkG ?a ?b ?c ?d ?e0] => set (g1 := mkG a b c d e0) in H end.
    assert (U : own_upd t g g1) by (eapply ou_exec; [exact Hf | lia | lia]).
    match type of H with context [if Nat.eqb (pred (g_total g)) 0 then ?x else ?y] =>
      destruct (if Nat.eqb (pred (g_total g)) 0 then x else y) as [g2 ns2] eqn:E end.
    apply unlock_rw_tail in E. injection H as <- _ _. exists g1, g1. auto.
  - unfold woke_ro in H. destruct (negb ok).
    + destruct (maybe_notify pref (leave_wr t g)) as [g2 ns2] eqn:E. injection H as <- _ _.
      exists g, (leave_wr t g). split; [apply ou_same|]. split; [right; unfold leaves; auto | eapply Note, E].
    + destruct (ok_readers pref g) eqn:Hok; injection H as <- _ _; [|apply Same, ou_same].
      eexists _, _. split; [|split; [|left; reflexivity]]; [|right; split; [left; reflexivity|split; reflexivity]]. apply ou_admit_r, Hok.
  - unfold woke_rw in H. destruct (negb ok).
    + destruct (maybe_notify pref (leave_ww t g)) as [g2 ns2] eqn:E. injection H as <- _ _.
      exists g, (leave_ww t g). split; [apply ou_same|]. split; [right; unfold leaves; auto | eapply Note, E].
    + destruct (ok_writer t g) eqn:Hok; injection H as <- _ _; [|apply Same, ou_same].
      eexists _, _. split; [|split; [|left; reflexivity]]; [|right; split; [right; reflexivity|split; reflexivity]]. apply ou_admit_w, Hok.
Qed.

Lemma setv_single : forall (t : tid) (e v : ent), setv t v [(t, e)] = [(t, v)].
Proof. intros. cbn [setv]. rewrite Nat.eqb_refl. reflexivity. Qed.

Lemma remove_single : forall (t : tid) (e : ent), remove t [(t, e)] = [].
Proof. intros. cbn [remove]. rewrite Nat.eqb_refl. reflexivity. Qed.

Lemma len1_find : forall (l : list (tid * ent)) t e, length l = 1 -> find t l = Some e -> l = [(t, e)].
Proof.
  intros [|[k0 e0] [|]] t e Hl Hf; cbn in Hl; try discriminate.
  apply find_single in Hf. destruct Hf; subst. reflexivity.
Qed.

Lemma read_setv : forall g t v x, read_mode g -> e_rw v = 0 -> x = setv t v (g_exec g) ->
  forall k e, In (k, e) x -> e_rw e = 0.
Proof.
  intros g t v x [_ Hr] Hv -> k e Hin. apply in_setv in Hin. destruct Hin as [[_ ->]|Hin]; eauto.
Qed.

Lemma read_remove : forall g t x, read_mode g -> x = remove t (g_exec g) ->
  forall k e, In (k, e) x -> e_rw e = 0.
Proof. intros g t x [_ Hr] -> k e Hin. apply in_remove in Hin. eauto. Qed.

Lemma read_find : forall g t e, read_mode g -> find t (g_exec g) = Some e -> e_rw e = 0.
Proof. intros g t e [_ Hr] Hf. apply find_in in Hf. eauto. Qed.

Lemma leave_wr_mode : forall t g, mode g -> mode (leave_wr t g).
Proof. intros t g Hm. unfold leave_wr. destruct (find t (g_wr g)); auto. Qed.

Lemma leave_ww_mode : forall t g, mode g -> mode (leave_ww t g).
Proof. intros t g Hm. unfold leave_ww. destruct (find t (g_ww g)); auto. Qed.

Lemma reader_admit_mode : forall t g p, mode g -> ok_readers pref g = true ->
  mode (mkG (g_total g) (setv t (mkEnt 1 0) (g_exec g)) (g_wr g) (g_ww g) p).
Proof.
  intros t g p Hm Hok. unfold ok_readers in Hok. apply andb_prop in Hok. destruct Hok as [Ht _]. apply Nat.eqb_eq in Ht.
  destruct Hm as [Hr|Hw]; [|apply write_total in Hw; contradiction].
  left. split; [auto|]. cbn. eapply read_setv; eauto; reflexivity.
Qed.

Lemma writer_admit_mode : forall t g p, mode g -> ok_writer t g = true ->
  mode (mkG (S (g_total g)) (setv t (mkEnt 0 1) (g_exec g)) (g_wr g) (g_ww g) p).
Proof.
  intros t g p Hm Hok. unfold ok_writer in Hok. apply andb_prop in Hok. destruct Hok as [Hnil _].
  apply is_nil_true in Hnil.
  destruct Hm as [Hr|Hw]; [|apply write_exec_nonnil in Hw; rewrite Hnil in Hw; discriminate].
  right. exists t, (mkEnt 0 1). rewrite Hnil, (read_total _ Hr). cbn. auto.
Qed.

(* a thread that holds the lock changes its counts from (_, e_rw e) to (a, b): the total follows the write count, and a write
   count may only grow for the writer or the sole holder *)
Lemma put_mode : forall t g a b e tot p, mode g -> find t (g_exec g) = Some e -> tot = g_total g + b - e_rw e ->
  (e_rw e < b -> 0 < e_rw e \/ length (g_exec g) = 1) ->
  mode (mkG tot (put t a b (g_exec g)) (g_wr g) (g_ww g) p).
Proof.
  intros t g a b e tot p Hm Hf -> Hup. unfold put. destruct Hm as [Hr|Hw].
  - pose proof (read_find _ _ _ Hr Hf) as Hz. rewrite Hz, (read_total _ Hr), Nat.sub_0_r in *. cbn [plus].
    destruct b as [|b].
    + left. split; [reflexivity|]. cbn [g_exec].
      destruct (mk_ent a 0) eqn:Em; [apply mk_ent_some in Em; destruct Em as [-> _]|].
      * apply (read_setv g t (mkEnt a 0) _ Hr eq_refl eq_refl).
      * apply (read_remove g t _ Hr eq_refl).
    + destruct Hup as [Hc|Hl]; [lia..|]. rewrite (len1_find _ _ _ Hl Hf), mk_ent_S_r, setv_single.
      right. exists t, (mkEnt a (S b)). cbn. repeat split; lia.
  - destruct (write_find _ _ _ Hw Hf) as (Hx & Hrw & Hp). rewrite Hx. replace (g_total g + b - e_rw e) with b by lia.
    destruct (mk_ent a b) eqn:Em.
    + apply mk_ent_some in Em. destruct Em as [-> Hpos]. rewrite setv_single. destruct b.
      * left. split; [reflexivity|]. intros k e' [H|[]]. inversion H. reflexivity.
      * right. exists t, (mkEnt a (S b)). cbn. repeat split; lia.
    + rewrite remove_single. left. apply mk_ent_none in Em. destruct Em as [_ ->]. split; [reflexivity|]. intros k e' [].
Qed.

Lemma cs_mode : forall t a g g' ns out, mode g -> cs pref t a g = Some (g', ns, out) -> mode g'.
Proof.
  intros t a g g' ns out Hm H. destruct (cs_shape _ _ _ _ _ _ H) as (g1 & g2 & U & L & N).
  eapply mode_shape; [apply notified_shape, N|].
  assert (M1 : mode g1).
  { destruct U as [| tot x y p e Hf Ht Hup | p Hok | p Hok | c p _ | c p _];
      [exact Hm | eapply put_mode; eauto | apply reader_admit_mode; auto | apply writer_admit_mode; auto | exact Hm ..]. }
  destruct L as [->|[[->| ->] _]]; auto using leave_wr_mode, leave_ww_mode.
Qed.


(* ---- frame: a transition of thread t leaves the table entries of every other thread alone ---- *)

Record frame_ok (t : tid) (g g' : gst) : Prop := mkFrame {
  fr_exec : forall k, k <> t -> find k (g_exec g') = find k (g_exec g);
  fr_wr : forall k, k <> t -> memk k (g_wr g') = memk k (g_wr g);
  fr_ww : forall k, k <> t -> memk k (g_ww g') = memk k (g_ww g)
}.

Lemma frame_refl : forall t g, frame_ok t g g.
Proof. constructor; auto. Qed.

Lemma frame_trans : forall t g1 g2 g3, frame_ok t g1 g2 -> frame_ok t g2 g3 -> frame_ok t g1 g3.
Proof.
  intros t g1 g2 g3 [A1 A2 A3] [B1 B2 B3]. constructor; intros k Hk.
  - rewrite B1, A1; auto.
  - rewrite B2, A2; auto.
  - rewrite B3, A3; auto.
Qed.

Lemma frame_shape : forall t g g', same_shape g g' -> frame_ok t g g'.
Proof.
  intros t g g' [_ He _ Hr Hw _ _]. constructor; intros k _; [rewrite He|..]; auto.
Qed.

Lemma frame_leave_wr : forall t g, frame_ok t g (leave_wr t g).
Proof.
  intros t g. unfold leave_wr. destruct (find t (g_wr g)); [|apply frame_refl].
  constructor; cbn; auto. intros k Hk. apply memk_remove_other; auto.
Qed.

Lemma frame_leave_ww : forall t g, frame_ok t g (leave_ww t g).
Proof.
  intros t g. unfold leave_ww. destruct (find t (g_ww g)); [|apply frame_refl].
  constructor; cbn; auto. intros k Hk. apply memk_remove_other; auto.
Qed.

Lemma cs_frame : forall t a g g' ns out, cs pref t a g = Some (g', ns, out) -> frame_ok t g g'.
Proof.
  intros t a g g' ns out H. destruct (cs_shape _ _ _ _ _ _ H) as (g1 & g2 & U & L & N).
  apply frame_trans with g2; [apply frame_trans with g1|].
  - destruct U as [| tot x y p e _ _ _ | | | |]; constructor; cbn; unfold put; try destruct (mk_ent x y);
      auto using find_setv_other, find_remove_other, memk_setv_other.
  - destruct L as [->|[[->| ->] _]]; auto using frame_refl, frame_leave_wr, frame_leave_ww.
  - apply frame_shape, notified_shape, N.
Qed.

(* a transition is a critical section, a timeout (nothing changes), or the return from Wait() (the thread's own counter
   is flushed) *)
Lemma run_cs_cs : forall t g l g' l' o, run_cs pref t g l = Some (g', l', o) ->
  exists ns out, cs pref t (l_act l) g = Some (g', ns, out) /\ match out with Parked a' _ => l_act l' = a' | _ => True end.
Proof.
  intros t g l g' l' o. unfold run_cs. destruct (cs pref t (l_act l) g) as [[[g1 ns] out]|]; [|discriminate].
  intros H. exists ns, out. destruct out; [destruct (complete l s)|..]; injection H as <- <- _; auto.
Qed.

Lemma step_cases : forall t c g l g' l' o, step pref t c g l = Some (g', l', o) ->
  (exists ns out, cs pref t (l_act l) g = Some (g', ns, out) /\ match out with Parked a' _ => l_act l' = a' | _ => True end) \/
  (g' = g /\ (l_act l = AParkRO Timed /\ l_act l' = AWokeRO Timed false \/
              l_act l = AParkRW Timed /\ l_act l' = AWokeRW Timed false)) \/
  (g' = set_wr g (setc t 0 (g_wr g)) /\ exists d, l_act l = AParkRO d /\ l_act l' = AWokeRO d true) \/
  (g' = set_ww g (setc t 0 (g_ww g)) /\ exists d, l_act l = AParkRW d /\ l_act l' = AWokeRW d true).
Proof.
  intros t c g l g' l' o H. unfold step in H.
  destruct c; destruct (l_act l) as [| | | | |d| |d|] eqn:Ha; try discriminate;
    try (left; rewrite <- Ha; eapply run_cs_cs; eassumption).
  - destruct (find t (g_wr g)) as [[|k]|]; try discriminate. injection H as <- <- _. right; right; left. eauto.
  - destruct (find t (g_ww g)) as [[|k]|]; try discriminate. injection H as <- <- _. right; right; right. eauto.
  - destruct d; try discriminate. injection H as <- <- _. right; left. auto.
  - destruct d; try discriminate. injection H as <- <- _. right; left. auto.
Qed.

Lemma step_frame : forall t c g l g' l' o, step pref t c g l = Some (g', l', o) -> frame_ok t g g'.
Proof.
  intros t c g l g' l' o H. destruct (step_cases _ _ _ _ _ _ _ H) as [(ns & out & E & _)|[[-> _]|[[-> _]|[-> _]]]].
  - eapply cs_frame, E.
  - apply frame_refl.
  - constructor; cbn; auto. intros. apply memk_setc.
  - constructor; cbn; auto. intros. apply memk_setc.
Qed.


(* ---- the thread that makes a transition stays consistent with the tables ---- *)

Lemma leave_wr_exec : forall t g, g_exec (leave_wr t g) = g_exec g.
Proof. intros. unfold leave_wr. destruct (find t (g_wr g)); reflexivity. Qed.

Lemma leave_wr_ww : forall t g, g_ww (leave_wr t g) = g_ww g.
Proof. intros. unfold leave_wr. destruct (find t (g_wr g)); reflexivity. Qed.

Lemma leave_wr_total : forall t g, g_total (leave_wr t g) = g_total g.
Proof. intros. unfold leave_wr. destruct (find t (g_wr g)); reflexivity. Qed.

Lemma leave_wr_memk : forall t g, memk t (g_wr (leave_wr t g)) = false.
Proof.
  intros. unfold leave_wr. destruct (find t (g_wr g)) eqn:E; cbn.
  - apply memk_remove_same.
  - unfold memk. rewrite E. reflexivity.
Qed.

Lemma leave_ww_exec : forall t g, g_exec (leave_ww t g) = g_exec g.
Proof. intros. unfold leave_ww. destruct (find t (g_ww g)); reflexivity. Qed.

Lemma leave_ww_wr : forall t g, g_wr (leave_ww t g) = g_wr g.
Proof. intros. unfold leave_ww. destruct (find t (g_ww g)); reflexivity. Qed.

Lemma leave_ww_total : forall t g, g_total (leave_ww t g) = g_total g.
Proof. intros. unfold leave_ww. destruct (find t (g_ww g)); reflexivity. Qed.

Lemma leave_ww_memk : forall t g, memk t (g_ww (leave_ww t g)) = false.
Proof.
  intros. unfold leave_ww. destruct (find t (g_ww g)) eqn:E; cbn.
  - apply memk_remove_same.
  - unfold memk. rewrite E. reflexivity.
Qed.

Lemma maybe_leave_wr : forall t g g2 ns, maybe_notify pref (leave_wr t g) = (g2, ns) ->
  g_exec g2 = g_exec g /\ memk t (g_wr g2) = false /\ memk t (g_ww g2) = memk t (g_ww g).
Proof.
  intros t g g2 ns E. pose proof (maybe_notify_shape pref (leave_wr t g)) as S. rewrite E in S. cbn [fst] in S.
  destruct S as [_ He _ Hr Hw _ _]. rewrite He, Hr, Hw, leave_wr_exec, leave_wr_memk, leave_wr_ww. auto.
Qed.

Lemma maybe_leave_ww : forall t g g2 ns, maybe_notify pref (leave_ww t g) = (g2, ns) ->
  g_exec g2 = g_exec g /\ memk t (g_ww g2) = false /\ memk t (g_wr g2) = memk t (g_wr g).
Proof.
  intros t g g2 ns E. pose proof (maybe_notify_shape pref (leave_ww t g)) as S. rewrite E in S. cbn [fst] in S.
  destruct S as [_ He _ Hr Hw _ _]. rewrite He, Hr, Hw, leave_ww_exec, leave_ww_memk, leave_ww_wr. auto.
Qed.

Lemma shape_facts : forall g1 g2, same_shape g1 g2 ->
  g_exec g2 = g_exec g1 /\ (forall k, memk k (g_wr g2) = memk k (g_wr g1)) /\ (forall k, memk k (g_ww g2) = memk k (g_ww g1)).
Proof. intros g1 g2 [_ He _ Hr Hw _ _]. auto. Qed.

Lemma maybe_facts : forall g1 g2 ns, maybe_notify pref g1 = (g2, ns) ->
  g_exec g2 = g_exec g1 /\ (forall k, memk k (g_wr g2) = memk k (g_wr g1)) /\ (forall k, memk k (g_ww g2) = memk k (g_ww g1)).
Proof.
  intros g1 g2 ns E. apply shape_facts. pose proof (maybe_notify_shape pref g1) as S. rewrite E in S. exact S.
Qed.



(* ---- the control state, one case per place in the code ---- *)

(* inside Wait(), or back from it, within the public method [o] *)
Inductive waits : act -> op -> Prop :=
| w_park_ro d : d <> Try -> waits (AParkRO d) (OLockRO d)
| w_woke_ro d ok : d <> Try -> (ok = false -> d = Timed) -> waits (AWokeRO d ok) (OLockRO d)
| w_park_rw d : d <> Try -> waits (AParkRW d) (OLockRW d)
| w_woke_rw d ok : d <> Try -> (ok = false -> d = Timed) -> waits (AWokeRW d ok) (OLockRW d).

(* [wf], by cases *)
Inductive ctl : loc -> Prop :=
| ctl_idle hro hrw : ctl (mkL AIdle [] None hro hrw)
| ctl_top o hro hrw : ctl (mkL (act_of_op o) [] (Some o) hro hrw)
| ctl_wait a o : waits a o -> ctl (mkL a [] (Some o) 0 0)
| ctl_drop n i d : i < n -> ctl (mkL AEnterUnRO [FDrop n i d] (Some (OLockRW d)) n 0)
| ctl_inner n d : 0 < n -> ctl (mkL (AEnterRW d) [FInner n] (Some (OLockRW d)) n 0)
| ctl_inner_wait n d a : 0 < n -> waits a (OLockRW d) -> ctl (mkL a [FInner n] (Some (OLockRW d)) n 0)
| ctl_relock n i lrw d : i < n -> lrw = SOk \/ lrw = STimedOut ->
    ctl (mkL (AEnterRO Never) [FRelock n i lrw] (Some (OLockRW d)) n 0)
| ctl_relock_wait n d a : 0 < n -> waits a (OLockRO Never) ->
    ctl (mkL a [FRelock n 0 STimedOut] (Some (OLockRW d)) n 0).

Lemma wf_ctl : forall l, wf l -> ctl l.
Proof.
  intros [a stk o hro hrw] H. unfold wf in H. cbn [l_act l_stk l_op l_hro l_hrw] in H.
  destruct stk as [|[n i d|n|n i lrw] [|]]; try contradiction.
  - destruct a;
      try (first [destruct H as (-> & Hd & -> & ->) | destruct H as (-> & Hd & Hok & -> & ->)];
           apply ctl_wait; constructor; assumption);
      subst o.
    + apply ctl_idle.
    + apply (ctl_top (OLockRO d)).
    + apply (ctl_top (OLockRW d)).
    + apply (ctl_top OUnlockRO).
    + apply (ctl_top OUnlockRW).
  - destruct H as (-> & Hi & -> & -> & ->). apply ctl_drop, Hi.
  - destruct H as (Hn & -> & -> & d & -> & [->|(Hd & [->|(ok & -> & Hok)])]);
      [apply ctl_inner | apply ctl_inner_wait | apply ctl_inner_wait]; auto; constructor; auto.
  - destruct H as (Hi & -> & -> & Hl & (d & ->) & [->|(-> & -> & [->| ->])]);
      [apply ctl_relock | apply ctl_relock_wait | apply ctl_relock_wait]; auto; constructor; discriminate.
Qed.

Lemma ctl_wf : forall l, ctl l -> wf l.
Proof.
  intros l H. destruct H as [| o ? ? | a o Hw | | | n d a Hn Hw | | n d a Hn Hw];
    unfold wf; cbn [l_stk l_act l_op l_hro l_hrw].
  - (* ctl_idle *) reflexivity.
  - (* ctl_top *) destruct o; reflexivity.
  - (* ctl_wait *) destruct Hw; auto.
  - (* ctl_drop *) auto.
  - (* ctl_inner *) eauto 8.
  - (* ctl_inner_wait *) inversion Hw; subst; eauto 12.
  - (* ctl_relock *) eauto 8.
  - (* ctl_relock_wait *) inversion Hw as [| d' ok Hd Hok | |]; subst; [|destruct ok; [|discriminate (Hok eq_refl)]]; eauto 12.
Qed.

(* the public method whose body the thread is in, at the innermost level of the upgrade path *)
Definition call_of (a : act) : option op :=
  match a with
  | AIdle => None
  | AEnterRO d | AParkRO d | AWokeRO d _ => Some (OLockRO d)
  | AEnterRW d | AParkRW d | AWokeRW d _ => Some (OLockRW d)
  | AEnterUnRO => Some OUnlockRO
  | AEnterUnRW => Some OUnlockRW
  end.

Definition in_wr (a : act) : bool := match a with AParkRO _ | AWokeRO _ _ => true | _ => false end.
Definition in_ww (a : act) : bool := match a with AParkRW _ | AWokeRW _ _ => true | _ => false end.

(* the statuses the critical section at [a] can return to a thread that holds (x, y) *)
Definition ret_ok (a : act) (x y : nat) (s : status) : Prop :=
  match s with
  | SOk => True
  | STimedOut => match a with AEnterRO Try | AEnterRW Try | AWokeRO _ false | AWokeRW _ false => True | _ => False end
  | SLockFailed => match a with AEnterUnRO => x = 0 | AEnterUnRW => y = 0 | _ => False end
  end.

Lemma call_of_op : forall o, call_of (act_of_op o) = Some o.
Proof. intros []; reflexivity. Qed.

Lemma waits_call : forall a o, waits a o -> call_of a = Some o.
Proof. intros a o []; reflexivity. Qed.

Lemma waiting_holds_nothing : forall l, ctl l -> in_wr (l_act l) || in_ww (l_act l) = true -> hold l = (0, 0).
Proof.
  intros l H. destruct H as [| [] | | | | | |]; cbn; intros Hw; try discriminate; reflexivity.
Qed.

Lemma op_none_idle : forall l, wf l -> l_op l = None -> l_act l = AIdle.
Proof. intros l H Ho. apply wf_ctl in H. destruct H; cbn in *; try discriminate; reflexivity. Qed.

Lemma idle_top : forall l, wf l -> l_act l = AIdle -> l_stk l = [].
Proof.
  intros l H Ha. apply wf_ctl in H.
  destruct H as [| [] | a o Hw | | | n d a Hn Hw | | n d a Hn Hw]; cbn in Ha; try discriminate; try reflexivity;
    subst a; inversion Hw.
Qed.

Lemma writer_top : forall l, wf l -> 0 < l_hrw l -> l_stk l = [].
Proof. intros l H Hw. apply wf_ctl in H. destruct H; cbn in *; try reflexivity; lia. Qed.

(* a (sub-)call returning [s] moves the holdings the control state stands for exactly as the public method [o] moves
   the user's counts *)
Lemma complete_hold : forall l s o l' r, ctl l -> call_of (l_act l) = Some o ->
  ret_ok (l_act l) (fst (hold l)) (snd (hold l)) s -> complete l s = (l', r) ->
  ctl l' /\ hold l' = (ghost_ro (Some o) s (fst (hold l)), ghost_rw (Some o) s (snd (hold l))) /\
  inwr l' = false /\ inww l' = false.
Proof.
  intros l s o l' r H.
  destruct H as [| o0 ? ? | a o0 Hw | n i d Hi | n d Hn | n d a Hn Hw | n i lrw d Hi Hl | n d a Hn Hw];
    cbn [l_act hold l_stk fst snd l_hro l_hrw]; intros Ho Hs Hc.
  - (* ctl_idle *) discriminate.
  - (* ctl_top *) rewrite call_of_op in Ho. injection Ho as <-. injection Hc as <- _. repeat split. apply ctl_idle.
  - (* ctl_wait *) rewrite (waits_call _ _ Hw) in Ho. injection Ho as <-. injection Hc as <- _. repeat split. apply ctl_idle.
  - (* ctl_drop *) injection Ho as <-. destruct s; cbn in Hs; try contradiction; [|lia].
    unfold complete in Hc. cbn [finish l_stk] in Hc.
    destruct (Nat.ltb_spec (S i) n); injection Hc as <- _; cbn; (split; [constructor; lia|]); (split; [f_equal; lia|auto]).
  - (* ctl_inner *) injection Ho as <-. destruct n; [lia|].
    destruct s; cbn in Hs; try contradiction; injection Hc as <- _; cbn; repeat split; constructor; auto.
  - (* ctl_inner_wait *) rewrite (waits_call _ _ Hw) in Ho. injection Ho as <-. destruct n; [lia|].
    inversion Hw; subst; destruct s; cbn in Hs; try contradiction; injection Hc as <- _; cbn; repeat split; constructor; auto.
  - (* ctl_relock *) injection Ho as <-. destruct s; cbn in Hs; try contradiction.
    unfold complete in Hc. cbn [finish l_stk] in Hc.
    destruct (Nat.ltb_spec (S i) n); injection Hc as <- _; cbn.
    + repeat split. constructor; auto.
    + assert (n = S i) as -> by lia. destruct Hl as [-> | ->]; repeat split; apply ctl_idle.
  - (* ctl_relock_wait *) rewrite (waits_call _ _ Hw) in Ho. injection Ho as <-.
    assert (s = SOk) as ->.
    { inversion Hw as [| d' ok Hd Hok | |]; subst; destruct s; cbn in Hs; try contradiction; auto.
      destruct ok; [contradiction | discriminate (Hok eq_refl)]. }
    unfold complete in Hc. cbn [finish l_stk] in Hc.
    destruct (Nat.ltb_spec 1 n); injection Hc as <- _; cbn.
    + repeat split. constructor; auto.
    + assert (n = 1) as -> by lia. repeat split; apply ctl_idle.
Qed.

Definition park_of (a : act) : option act :=
  match a with
  | AEnterRO d | AWokeRO d _ => Some (AParkRO d)
  | AEnterRW d | AWokeRW d _ => Some (AParkRW d)
  | _ => None
  end.

Lemma ctl_park : forall l a', ctl l -> park_of (l_act l) = Some a' -> hold l = (0, 0) ->
  (forall d, l_act l = AEnterRO d \/ l_act l = AEnterRW d -> d <> Try) -> ctl (keep l a').
Proof.
  intros l a' H.
  destruct H as [| o0 ? ? | a o0 Hw | n i d Hi | n d Hn | n d a Hn Hw | n i lrw d Hi Hl | n d a Hn Hw];
    unfold keep; cbn [l_act hold l_stk fst snd l_hro l_hrw l_op]; intros Hp Hh Hd; try discriminate.
  - (* ctl_top *) destruct o0; try discriminate; injection Hp as <-; injection Hh as -> ->; apply ctl_wait; constructor; eapply Hd; eauto.
  - (* ctl_wait *) destruct Hw; try discriminate; injection Hp as <-; apply ctl_wait; constructor; auto.
  - (* ctl_inner *) injection Hp as <-. apply ctl_inner_wait; auto. constructor. eapply Hd; eauto.
  - (* ctl_inner_wait *) inversion Hw; subst; try discriminate; injection Hp as <-; apply ctl_inner_wait; auto; constructor; auto.
  - (* ctl_relock *) injection Hp as <-. injection Hh as -> Hf. destruct Hl as [-> | ->]; [discriminate|].
    apply ctl_relock_wait; auto. constructor. discriminate.
  - (* ctl_relock_wait *) inversion Hw; subst; try discriminate; injection Hp as <-; apply ctl_relock_wait; auto; constructor; discriminate.
Qed.

Lemma ctl_wake : forall l d ok, ctl l -> (ok = false -> d = Timed) ->
  (l_act l = AParkRO d -> ctl (keep l (AWokeRO d ok))) /\ (l_act l = AParkRW d -> ctl (keep l (AWokeRW d ok))).
Proof.
  intros l d ok H Hok.
  destruct H as [| o0 ? ? | a o0 Hw | n i d0 Hi | n d0 Hn | n d0 a Hn Hw | n i lrw d0 Hi Hl | n d0 a Hn Hw];
    unfold keep; cbn [l_act l_stk l_hro l_hrw l_op]; split; intros Ha; try discriminate.
  (* each constructor leaves its reader and its writer half *)
  1,2: (* ctl_top *) destruct o0; discriminate.
  1,2: (* ctl_wait *) destruct Hw; try discriminate; injection Ha as ->; apply ctl_wait; constructor; auto.
  1,2: (* ctl_inner_wait *) subst a; inversion Hw; subst; apply ctl_inner_wait; auto; constructor; auto.
  1,2: (* ctl_relock_wait *) subst a; inversion Hw; subst; apply ctl_relock_wait; auto; constructor; auto.
Qed.

Lemma ctl_call : forall l d x, ctl l -> l_act l = AEnterRW d -> hold l = (x, 0) -> 0 < x ->
  let l' := mkL AEnterUnRO (FDrop x 0 d :: l_stk l) (l_op l) (l_hro l) (l_hrw l) in ctl l' /\ hold l' = (x, 0).
Proof.
  intros l d x H.
  destruct H as [| o0 ? ? | a o0 Hw | n i d0 Hi | n d0 Hn | n d0 a Hn Hw | n i lrw d0 Hi Hl | n d0 a Hn Hw];
    cbn [l_act hold l_stk fst snd l_hro l_hrw l_op]; intros Ha Hh Hx; try discriminate.
  - (* ctl_top *) destruct o0; try discriminate. injection Ha as ->. injection Hh as -> ->.
    split; [apply ctl_drop, Hx | cbn; rewrite Nat.sub_0_r; reflexivity].
  - (* ctl_wait *) destruct Hw; discriminate.
  - (* ctl_inner *) injection Hh as <-. lia.
  - (* ctl_inner_wait *) injection Hh as <-. lia.
  - (* ctl_relock_wait *) injection Hh as <-. lia.
Qed.

(* what a critical section does to the table entries of the thread that runs it *)
Lemma cs_own : forall t a g g' ns out o x y,
  cs pref t a g = Some (g', ns, out) -> call_of a = Some o ->
  find t (g_exec g) = mk_ent x y -> (in_wr a || in_ww a = true -> x = 0 /\ y = 0) ->
  memk t (g_wr g) = in_wr a -> memk t (g_ww g) = in_ww a ->
  match out with
  | Done s =>
      ret_ok a x y s /\ find t (g_exec g') = mk_ent (ghost_ro (Some o) s x) (ghost_rw (Some o) s y) /\
      memk t (g_wr g') = false /\ memk t (g_ww g') = false
  | Parked a' _ =>
      park_of a = Some a' /\ (forall d, a = AEnterRO d \/ a = AEnterRW d -> d <> Try) /\ x = 0 /\ y = 0 /\
      find t (g_exec g') = None /\ memk t (g_wr g') = in_wr a' /\ memk t (g_ww g') = in_ww a'
  | Call a' f =>
      g' = g /\ y = 0 /\ 0 < x /\ a' = AEnterUnRO /\ exists d, a = AEnterRW d /\ f = FDrop x 0 d
  end.
Proof.
  intros t a g g' ns out o x y H Ho Hx Hz Hr Hw.
  assert (He : forall e, find t (g_exec g) = Some e -> e = mkEnt x y /\ 0 < x + y)
    by (intros e Hf; apply mk_ent_some; congruence).
  assert (Hn : find t (g_exec g) = None -> x = 0 /\ y = 0) by (intros Hf; apply mk_ent_none; congruence).
  destruct a; cbn [cs] in H; try discriminate; injection H as H; injection Ho as <-; cbn [in_wr in_ww orb] in *.
  - unfold enter_ro in H. destruct (find t (g_exec g)) as [e|] eqn:Hf.
    + destruct (He e eq_refl) as [-> _]. injection H as <- _ <-. cbn. rewrite find_setv_same. auto.
    + destruct (Hn eq_refl) as [-> ->]. destruct (ok_readers pref g).
      * injection H as <- _ <-. cbn. rewrite find_setv_same. auto.
      * destruct d; try (destruct (pool_get (g_pool g)); injection H as <- _ <-; cbn; rewrite memk_setv_same;
                         repeat split; auto; intros d0 [E|E]; inversion E; discriminate).
        injection H as <- _ <-. cbn. auto.
  - unfold enter_rw in H. destruct (find t (g_exec g)) as [e|] eqn:Hf.
    + destruct (He e eq_refl) as [-> Hp]. cbn [e_ro e_rw] in H.
      destruct (Nat.ltb 0 y || Nat.eqb (length (g_exec g)) 1) eqn:Hb.
      * injection H as <- _ <-. cbn. rewrite find_setv_same, mk_ent_S_r. auto.
      * apply orb_false_elim in Hb. destruct Hb as [Hb _]. apply Nat.ltb_ge in Hb. apply Nat.le_0_r in Hb. subst y.
        destruct x; [lia|]. destruct d; injection H as <- _ <-; cbn; rewrite ?Hf; repeat split; eauto; lia.
    + destruct (Hn eq_refl) as [-> ->]. destruct (ok_writer t g).
      * injection H as <- _ <-. cbn. rewrite find_setv_same. auto.
      * destruct d; try (destruct (pool_get (g_pool g)); injection H as <- _ <-; cbn; rewrite memk_setv_same;
                         repeat split; auto; intros d0 [E|E]; inversion E; discriminate).
        injection H as <- _ <-. cbn. auto.
  - unfold unlock_ro in H. destruct (find t (g_exec g)) as [e|] eqn:Hf.
    + destruct (He e eq_refl) as [-> Hp]. cbn [e_ro e_rw] in H. destruct x as [|r].
      * injection H as <- _ <-. cbn. rewrite Hf. auto.
      * destruct (Nat.eqb r 0 && Nat.eqb y 0) eqn:Hb.
        -- apply andb_eqb0 in Hb. destruct Hb as [-> ->].
           destruct (maybe_notify pref (set_exec g (remove t (g_exec g)))) as [g2 ns2] eqn:E.
           apply maybe_facts in E. destruct E as (E1 & E2 & E3). injection H as <- _ <-.
           cbn. rewrite E1, E2, E3. cbn. rewrite find_remove_same. auto.
        -- apply andb_eqb0_false in Hb. injection H as <- _ <-. cbn. rewrite find_setv_same, mk_ent_pos by lia. auto.
    + destruct (Hn eq_refl) as [-> ->]. injection H as <- _ <-. cbn. rewrite Hf. auto.
  - unfold unlock_rw in H. destruct (find t (g_exec g)) as [e|] eqn:Hf.
    + destruct (He e eq_refl) as [-> Hp]. cbn [e_ro e_rw] in H. destruct y as [|w].
      * injection H as <- _ <-. cbn. rewrite Hf. auto.
      * match type of H with context [if Nat.eqb (pred (g_total g)) 0 then ?a else ?b] =>
          destruct (if Nat.eqb (pred (g_total g)) 0 then a else b) as [g2 ns2] eqn:E end.
        apply unlock_rw_tail, notified_shape, shape_facts in E. destruct E as (E1 & E2 & E3).
        injection H as <- _ <-. cbn. rewrite E1, E2, E3. cbn.
        rewrite put_if, find_put. auto.
    + destruct (Hn eq_refl) as [-> ->]. injection H as <- _ <-. cbn. rewrite Hf. auto.
  - destruct (Hz eq_refl) as [-> ->]. unfold woke_ro in H. destruct ok; cbn [negb] in H.
    + destruct (ok_readers pref g); injection H as <- _ <-.
      * cbn. rewrite leave_wr_exec, leave_wr_memk, leave_wr_ww. cbn. rewrite find_setv_same. auto.
      * cbn. repeat split; auto. intros d0 [E|E]; discriminate.
    + destruct (maybe_notify pref (leave_wr t g)) as [g2 ns2] eqn:E. apply maybe_leave_wr in E.
      destruct E as (E1 & E2 & E3). injection H as <- _ <-. cbn. rewrite E1, E2, E3. auto.
  - destruct (Hz eq_refl) as [-> ->]. unfold woke_rw in H. destruct ok; cbn [negb] in H.
    + destruct (ok_writer t g); injection H as <- _ <-.
      * cbn. rewrite leave_ww_exec, leave_ww_memk, leave_ww_wr. cbn. rewrite find_setv_same. auto.
      * cbn. repeat split; auto. intros d0 [E|E]; discriminate.
    + destruct (maybe_notify pref (leave_ww t g)) as [g2 ns2] eqn:E. apply maybe_leave_ww in E.
      destruct E as (E1 & E2 & E3). injection H as <- _ <-. cbn. rewrite E1, E2, E3. auto.
Qed.

Lemma run_cs_self : forall t g l g' l' o, linv g t l -> run_cs pref t g l = Some (g', l', o) -> linv g' t l'.
Proof.
  intros t g l g' l' o [Hwf Hex Hwr Hww] H. apply wf_ctl in Hwf. unfold run_cs in H.
  destruct (cs pref t (l_act l) g) as [[[g1 ns] out]|] eqn:E; [|discriminate].
  destruct (call_of (l_act l)) as [o0|] eqn:Ho; [|destruct (l_act l); discriminate].
  pose proof (waiting_holds_nothing l Hwf) as Hz.
  assert (Hown := cs_own _ _ _ _ _ _ _ _ _ E Ho Hex).
  destruct out as [s | a' c | a' f].
  - destruct Hown as (Hret & Hf & Hr & Hw); auto. { intros Hi. rewrite (Hz Hi). auto. }
    destruct (complete l s) as [l1 r] eqn:Ec. injection H as <- <- _.
    destruct (complete_hold _ _ _ _ _ Hwf Ho Hret Ec) as (Hc & Hh & Hi1 & Hi2).
    constructor; [apply ctl_wf, Hc | unfold exp_ent; rewrite Hh; exact Hf | rewrite Hi1; exact Hr | rewrite Hi2; exact Hw].
  - destruct Hown as (Hp & Hd & Hx0 & Hy0 & Hf & Hr & Hw); auto. { intros Hi. rewrite (Hz Hi). auto. }
    injection H as <- <- _.
    constructor; [apply ctl_wf, ctl_park; auto; destruct (hold l); cbn in Hx0, Hy0; congruence | | exact Hr | exact Hw].
    unfold exp_ent. change (hold (keep l a')) with (hold l). rewrite Hx0, Hy0. exact Hf.
  - destruct Hown as (-> & Hy & Hx & -> & d & Ha & ->); auto. { intros Hi. rewrite (Hz Hi). auto. }
    injection H as <- <- _.
    destruct (ctl_call l d (fst (hold l)) Hwf Ha) as [Hc Hh]; auto. { destruct (hold l); cbn in *; congruence. }
    constructor; [apply ctl_wf, Hc | unfold exp_ent; rewrite Hh, Hex; unfold exp_ent; rewrite Hy; reflexivity | |].
    + rewrite Hwr. unfold inwr. rewrite Ha. reflexivity.
    + rewrite Hww. unfold inww. rewrite Ha. reflexivity.
Qed.

Lemma wake_self : forall t g l d ok, linv g t l -> (ok = false -> d = Timed) ->
  (l_act l = AParkRO d -> linv g t (keep l (AWokeRO d ok))) /\ (l_act l = AParkRW d -> linv g t (keep l (AWokeRW d ok))).
Proof.
  intros t g l d ok [Hwf Hex Hwr Hww] Hok. apply wf_ctl in Hwf. destruct (ctl_wake l d ok Hwf Hok) as [C1 C2].
  split; intros Ha; (constructor; [apply ctl_wf; auto | exact Hex | rewrite Hwr | rewrite Hww]);
    unfold inwr, inww; rewrite Ha; reflexivity.
Qed.

(* ---- every transition keeps the thread that makes it consistent with the tables ---- *)
Lemma step_self : forall t c g l g' l' o, linv g t l -> step pref t c g l = Some (g', l', o) -> linv g' t l'.
Proof.
  intros t c g l g' l' o Hl H. unfold step in H.
  destruct c; destruct (l_act l) as [| | | | |d| |d|] eqn:Ha; try discriminate; try (eapply run_cs_self; eassumption).
  - destruct (find t (g_wr g)) as [[|k]|]; try discriminate. injection H as <- <- _.
    destruct (proj1 (wake_self t g l d true Hl ltac:(discriminate)) Ha) as [A1 A2 A3 A4].
    constructor; cbn [set_wr g_exec g_wr g_ww]; rewrite ?memk_setc; assumption.
  - destruct (find t (g_ww g)) as [[|k]|]; try discriminate. injection H as <- <- _.
    destruct (proj2 (wake_self t g l d true Hl ltac:(discriminate)) Ha) as [A1 A2 A3 A4].
    constructor; cbn [set_ww g_exec g_wr g_ww]; rewrite ?memk_setc; assumption.
  - destruct d; try discriminate. injection H as <- <- _. apply (wake_self t g l Timed false Hl); auto.
  - destruct d; try discriminate. injection H as <- <- _. apply (wake_self t g l Timed false Hl); auto.
Qed.

Lemma step_mode : forall t c g l g' l' o, mode g -> step pref t c g l = Some (g', l', o) -> mode g'.
Proof.
  intros t c g l g' l' o Hm H. destruct (step_cases _ _ _ _ _ _ _ H) as [(ns & out & E & _)|[[-> _]|[[-> _]|[-> _]]]];
    [eapply cs_mode; eassumption | exact Hm ..].
Qed.

Lemma begin_self : forall g t o l l', linv g t l -> begin_op o l = Some l' -> linv g t l'.
Proof.
  intros g t o [a stk op hro hrw] l' [Hwf Hex Hwr Hww] H.
  unfold begin_op in H. cbn [l_act l_stk l_hro l_hrw] in H.
  destruct a; try discriminate. destruct stk; try discriminate. inversion H; subst; clear H.
  unfold wf, exp_ent, hold, inwr, inww in *. cbn [l_stk l_act l_op l_hro l_hrw fst snd] in *.
  destruct o; constructor; unfold wf, exp_ent, hold, inwr, inww; cbn [l_stk l_act l_op l_hro l_hrw fst snd act_of_op]; auto.
Qed.

Lemma linv_frame : forall t g g' k l, frame_ok t g g' -> k <> t -> linv g k l -> linv g' k l.
Proof.
  intros t g g' k l [Fe Fr Fw] Hk [Hwf Hex Hwr Hww]. constructor; auto.
  - rewrite Fe; auto.
  - rewrite Fr; auto.
  - rewrite Fw; auto.
Qed.

Lemma inv_init : inv sys0.
Proof.
  split.
  - left. split; [reflexivity|]. intros t e [].
  - intros t. constructor; cbn; auto.
Qed.

Lemma inv_step : forall s lab s' o, inv s -> sys_step pref s lab = Some (s', o) -> inv s'.
Proof.
  intros s lab s' o [Hm Hl] H. destruct lab as [t op|t c|p]; cbn [sys_step] in H.
  - destruct (begin_op op (s_l s t)) as [l'|] eqn:E; [|discriminate]. inversion H; subst; clear H. cbn [s_g s_l].
    split; [exact Hm|]. intros k. cbn [s_g s_l]. unfold upd. destruct (Nat.eqb k t) eqn:Ek.
    + apply Nat.eqb_eq in Ek. subst k. eapply begin_self; [apply Hl | exact E].
    + apply Hl.
  - destruct (step pref t c (s_g s) (s_l s t)) as [[[g' l'] o']|] eqn:E; [|discriminate]. inversion H; subst; clear H. cbn [s_g s_l].
    split; [eapply step_mode; eauto|].
    intros k. cbn [s_g s_l]. unfold upd. destruct (Nat.eqb k t) eqn:Ek.
    + apply Nat.eqb_eq in Ek. subst k. eapply step_self; [apply Hl | exact E].
    + apply Nat.eqb_neq in Ek. eapply linv_frame; eauto. eapply step_frame; eauto.
  - inversion H; subst; clear H. cbn [s_g s_l]. split; [exact Hm|]. intros k. destruct (Hl k) as [A1 A2 A3 A4]. constructor; auto.
Qed.

Theorem inv_reachable : forall s, reachable pref s -> inv s.
Proof.
  intros s H. induction H as [|s lab s' o Hr IH Hs]; [apply inv_init | eapply inv_step; eauto].
Qed.

End P.
