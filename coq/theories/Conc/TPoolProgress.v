(* C19 -- a bound on the work the pool still has to do: every step of a pool thread lowers it, only accepted
   submissions raise it, it is positive while anything is outstanding.  Together with pool_no_stuck (a pool thread can
   always move while something is outstanding) this is the termination argument behind "every accepted Message is
   handled" and "a blocked UnregisterClient() is woken": no transition the pool waits for can be disabled, and only
   finitely many of them fit between two submissions. *)
From Coq Require Import List Arith Bool Lia.
From Muscle Require Import Conc.TPool Conc.TPoolLemmas Conc.TPoolInv Conc.TPoolStep Conc.TPoolProofs.
Import ListNotations.

Definition qsum (t : table (list nat)) : nat := fold_right (fun e acc => length (snd e) + acc) 0 t.
(* 4 per queued Message, against 2 per Message in a thread's batch plus 2 for the batch (thr_work): handing a batch
   of k >= 1 Messages to a thread turns 4k into 2k + 2 <= 4k, and each of the thread's steps then takes at least 1 off *)
Definition pool_work (s : st) : nat := work (s_thr s) + 4 * (qsum (s_pend s) + qsum (s_defer s)).

Lemma qsum_cons : forall k q r, qsum ((k, q) :: r) = length q + qsum r.
Proof. reflexivity. Qed.

Lemma qsum_tset_some : forall k q q' t, tget k t = Some q -> qsum (tset k q' t) + length q = qsum t + length q'.
Proof.
  intros k q q' t. unfold qsum. induction t as [|[k0 v] r IH]; cbn; [discriminate|].
  destruct (Nat.eqb_spec k k0) as [->|Hn]; intros H.
  - injection H as ->. cbn. lia.
  - cbn. apply IH in H. lia.
Qed.

Lemma qsum_tset_none : forall k q' t, tget k t = None -> qsum (tset k q' t) = qsum t + length q'.
Proof.
  intros k q' t. unfold qsum. induction t as [|[k0 v] r IH]; cbn; [lia|].
  destruct (Nat.eqb_spec k k0) as [->|Hn]; [discriminate|]. intros H. cbn. apply IH in H. lia.
Qed.

Lemma qsum_tdel_le : forall k t, qsum (tdel k t) <= qsum t.
Proof.
  intros k t. unfold qsum. induction t as [|[k0 v] r IH]; cbn; [lia|].
  destruct (Nat.eqb k k0); cbn; lia.
Qed.

Lemma qsum_pos : forall k q t, tget k t = Some q -> q <> [] -> 0 < qsum t.
Proof.
  intros k q t. unfold qsum. induction t as [|[k0 v] r IH]; cbn; [discriminate|].
  destruct (Nat.eqb_spec k k0) as [->|Hn]; intros H Hq.
  - injection H as ->. destruct q; [congruence|cbn; lia].
  - pose proof (IH H Hq). lia.
Qed.

Lemma work_pos : forall t h c l, tget t l = Some h -> th_client h = Some c -> 0 < work l.
Proof.
  intros t h c l. unfold work. induction l as [|[k v] r IH]; cbn; [discriminate|].
  destruct (Nat.eqb_spec t k) as [->|Hn]; intros H Hc.
  - injection H as ->. unfold thr_work. rewrite Hc. lia.
  - pose proof (IH H Hc). lia.
Qed.

Lemma dispatch_work_le : forall s, SInv s -> pool_work (dispatch s) <= pool_work s.
Proof.
  apply (dispatch_rel (fun a b => pool_work b <= pool_work a)); auto; try (intros; lia).
  - (* spawn: an idle thread *)
    intros s0 I0 _ _ _. unfold pool_work, spawn; sst. rewrite work_tset_none; [cbn; lia|].
    destruct (tget (s_ctr s0) (s_thr s0)) eqn:E; auto. apply (i_fresh_thr _ I0) in E. lia.
  - (* assign: 4 per pending Message become 2 per Message in the thread, + 2 *)
    intros s0 t c mq rest I0 _ Hl Hp Hmq.
    assert (Hin : In t (s_avail s0)) by now apply last_opt_In.
    destruct (i_avail_idle _ I0 t Hin) as [h0 [Ht0 [Hidle Hex]]].
    pose proof (idle_work h0 Hidle) as Hw0.
    apply thr_idle_spec in Hidle. destruct Hidle as [Hc0 [Hq0 Hr0]].
    unfold pool_work, assign, thr_of. rewrite Ht0. sst. rewrite Hp. cbn [tl].
    pose proof (work_tset_some t h0 (mkThr (Some c) mq (th_running h0) (th_exited h0)) _ Ht0) as Hw.
    unfold thr_work in Hw at 2. cbn [th_client th_queue th_running] in Hw. rewrite Hr0, Hw0 in Hw.
    rewrite qsum_cons, Hr0.
    destruct mq as [|m0 mq]; [congruence|]. cbn [length] in *. lia.
Qed.

(* ---------------------------------------------------------------- the measure along the transitions *)

Definition is_thread_label (l : label) : bool :=
  match l with LEnter _ | LExit _ | LFinish _ => true | _ => false end.
Definition is_submit (l : label) : bool := match l with LSubmit _ _ | LSubmitStale _ _ => true | _ => false end.

Lemma finish_work_lt : forall s t h c s' ev,
  Inv s -> tget t (s_thr s) = Some h -> th_client h = Some c -> th_queue h = [] -> th_running h = false ->
  finished (upd_thr s t (mkThr None [] false (th_exited h))) t c = (s', ev) -> pool_work s' < pool_work s.
Proof.
  intros s t h c s' ev [I [U W]] Ht Hc Hq Hr Hf. unfold finished in Hf.
  change (s_shut (upd_thr s t (mkThr None [] false (th_exited h)))) with (s_shut s) in Hf.
  pose proof (work_finish t h c (th_exited h) _ Ht Hc Hq Hr) as Hw.
  destruct (s_shut s) eqn:Hsh.
  - injection Hf as <- <-. unfold pool_work; sst. lia.
  - pose proof (fin_core_inv s t h c I Hsh Ht Hc Hq Hr) as I2.
    destruct (fin_facts s t h c I Hsh Ht Hc) as [Hregc [Hpn [Hm Hex]]].
    set (s2 := fin_core (upd_thr s t (mkThr None [] false (th_exited h))) t c) in *.
    assert (H2 : pool_work s2 + 2 = pool_work s).
    { unfold s2, pool_work, fin_core; sst; rewrite Hregc; sst.
      destruct (tget c (s_defer s)) as [[|d0 dr]|] eqn:Hd; sst; rewrite ?Hm; sst; try lia.
      unfold qof. rewrite Hpn.
      pose proof (qsum_tset_none c (d0 :: dr) _ Hpn) as Q1.
      pose proof (qsum_tset_some c (d0 :: dr) [] _ Hd) as Q2. cbn [length] in *. lia. }
    pose proof (dispatch_work_le s2 I2) as H3.
    destruct (fin_notify_frame _ _ _ _ Hf) as [u [w [-> _]]]. unfold pool_work in *; sst. lia.
Qed.

(* an accepted Message adds 4 *)
Lemma sent_work : forall s c m s' r, SInv s -> sent s c m s' r -> pool_work s' <= pool_work s + 4.
Proof.
  intros s c m s' r I Hs.
  assert (Happ : forall t, qsum (tappend c m t) = qsum t + 1).
  { intros t. unfold tappend, qof. destruct (tget c t) as [q|] eqn:E.
    - pose proof (qsum_tset_some c q (q ++ [m]) _ E) as Q. rewrite app_length in Q. cbn [length] in Q. lia.
    - cbn [app]. now rewrite (qsum_tset_none c [m] _ E). }
  destruct Hs.
  1, 2, 4: (* sent_defer, sent_queue, sent_bad: a queue grows by at most the one Message *)
    unfold pool_work; sst; rewrite ?Happ; lia.
  (* sent_dispatch: the same, and the dispatch does not raise the measure *)
  etransitivity; [apply dispatch_work_le, send_pend_inv; auto|]. unfold pool_work; sst. rewrite Happ. lia.
Qed.

(* every step of a pool thread lowers the measure, only a submission raises it *)
Lemma step_work : forall s l s' ev, Inv s -> step s l = Some (s', ev) ->
  pool_work s' + (if is_thread_label l then 1 else 0) <= pool_work s + (if is_submit l then 4 else 0).
Proof.
  intros s l s' ev HI Hst. pose proof HI as [I [U W]]. apply step_trans in Hst.
  destruct Hst; cbn [is_thread_label is_submit]; unfold pool_work; sst.
  - (* t_register_same *) lia.
  - (* t_register *) lia.
  - (* t_submit *) pose proof (sent_work s c m s' r I Hs) as H. unfold pool_work in H. lia.
  - (* t_submit_unregistered *) lia.
  - (* t_enter *) pose proof (work_enter t h c m q (th_exited h) _ Ht Hc Hq Hr). lia.
  - (* t_exit *) pose proof (work_exit t h c m q (th_exited h) _ Ht Hc Hq Hr). lia.
  - (* t_finish *) pose proof (finish_work_lt s t h c s' ev HI Ht Hc Hq Hr Hf) as H. unfold pool_work in H. lia.
  - (* t_unreg_begin *) unfold unreg_begin in Hb. destruct (outstanding s c); injection Hb as <- <-; sst; lia.
  - (* t_unreg_wake *) lia.
  - (* t_unreg_end *) unfold unreg_end; sst. pose proof (qsum_tdel_le c (s_pend s)). pose proof (qsum_tdel_le c (s_defer s)). lia.
  - (* t_shut_begin *) lia.
  - (* t_shut_swap_avail *) lia.
  - (* t_shut_swap_active *) lia.
  - (* t_shut_join *) rewrite (join_work s t Hid). lia.
  - (* t_shut_end *) rewrite shut_end_eq in He. injection He as <- <-. sst. cbn. lia.
  - (* t_submit_stale *) pose proof (sent_work s c m s' r I Hs) as H. unfold pool_work in H. lia.
Qed.

Theorem pool_work_step : forall n ls s tr, run (init n) ls = Some (s, tr) -> forall l s' ev, step s l = Some (s', ev) ->
  (is_thread_label l = true -> pool_work s' < pool_work s) /\
  (is_submit l = false -> pool_work s' <= pool_work s) /\
  (is_submit l = true -> pool_work s' <= pool_work s + 4).
Proof.
  intros n ls s tr H l s' ev Hst. apply run_reach in H. pose proof (step_work _ _ _ _ (reach_inv _ _ _ H) Hst) as Hw.
  destruct l; cbn [is_thread_label is_submit] in *; repeat split; intros; try discriminate; lia.
Qed.

(* while anything of a client is outstanding (and Shutdown() has not begun) the measure is positive *)
Theorem pool_work_pos : forall n ls s tr, run (init n) ls = Some (s, tr) -> s_shut s = false ->
  forall c, outstanding s c = true -> 0 < pool_work s.
Proof.
  intros n ls s tr H Hsh c Ho. apply run_reach in H. destruct (reach_inv _ _ _ H) as [I [U W]].
  unfold pool_work. unfold outstanding in Ho. apply orb_true_iff in Ho. destruct Ho as [Ho|Hd].
  apply orb_true_iff in Ho. destruct Ho as [Hh|Hp].
  - unfold handled in Hh. destruct (tget c (s_reg s)) as [[|]|] eqn:Hr; try discriminate.
    destruct (i_reg_thr _ I Hsh c Hr) as [t [h [Ht Hc]]]. pose proof (work_pos t h c _ Ht Hc). lia.
  - apply negb_true_iff, is_nil_false in Hp. unfold qof in Hp. destruct (tget c (s_pend s)) as [q|] eqn:E; [|congruence].
    pose proof (qsum_pos c q _ E Hp). lia.
  - apply negb_true_iff, is_nil_false in Hd. unfold qof in Hd. destruct (tget c (s_defer s)) as [q|] eqn:E; [|congruence].
    pose proof (qsum_pos c q _ E Hd). lia.
Qed.
