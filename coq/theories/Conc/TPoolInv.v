(* C19 -- the state invariant of the ThreadPool LTS and its preservation by the elementary operations
   (spawn, assign, the dispatch loop); Notify() and the final section of Shutdown() as updates of single fields.
   The per-label preservation is in TPoolStep.v. *)
From Coq Require Import List Arith Bool Lia.
From Muscle Require Import Conc.TPool Conc.TPoolLemmas.
Import ListNotations.

Ltac sst := cbn [s_max s_shut s_ctr s_avail s_active s_reg s_pend s_defer s_wait s_thr s_cl s_unreg s_sd s_bad
                 set_shut set_ctr set_avail set_active set_reg set_pend set_defer set_wait set_thr set_cl set_unreg
                 set_sd set_bad massert upd_thr th_client th_queue th_running th_exited] in *.

Definition joinlist (p : sdpc) : list tid :=
  match p with SdJoinAvail l _ => l | SdJoinActive l _ => l | _ => [] end.

(* a ThreadPoolThread's own fields are consistent *)
Definition thr_wf (h : thr) : Prop :=
  (th_running h = true -> th_queue h <> [] /\ th_client h <> None) /\
  (th_client h = None -> th_queue h = [] /\ th_running h = false) /\
  (th_exited h = true -> th_client h = None).

Record SInv (s : st) : Prop := {
  i_nd_pend : NoDup (tkeys (s_pend s));
  i_nd_thr : NoDup (tkeys (s_thr s));
  i_nd_avail : NoDup (s_avail s);
  i_nd_active : NoDup (s_active s);
  i_disj : forall t, In t (s_avail s) -> In t (s_active s) -> False;
  i_fresh_thr : forall t h, tget t (s_thr s) = Some h -> t < s_ctr s;
  i_fresh_tab : forall t, In t (s_avail s) \/ In t (s_active s) \/ In t (joinlist (s_sd s)) -> t < s_ctr s;
  (* a client waits in _pendingMessages only with something to do, registered and not being handled *)
  i_pend_ok : forall c q, tget c (s_pend s) = Some q -> q <> [] /\ tget c (s_reg s) = Some false;
  (* deferred Messages exist only while the client is being handled *)
  i_defer_ok : forall c q, tget c (s_defer s) = Some q -> q <> [] -> tget c (s_reg s) = Some true;
  (* a pool thread works only for a client that is flagged as being handled; no two threads for one client *)
  i_thr_reg : forall t h c, tget t (s_thr s) = Some h -> th_client h = Some c -> tget c (s_reg s) = Some true;
  i_thr_uniq : forall t1 t2 h1 h2 c, tget t1 (s_thr s) = Some h1 -> tget t2 (s_thr s) = Some h2 ->
                                     th_client h1 = Some c -> th_client h2 = Some c -> t1 = t2;
  (* until Shutdown() begins, the flag means that some pool thread really works for the client *)
  i_reg_thr : s_shut s = false -> forall c, tget c (s_reg s) = Some true ->
                                            exists t h, tget t (s_thr s) = Some h /\ th_client h = Some c;
  i_avail_idle : forall t, In t (s_avail s) -> exists h, tget t (s_thr s) = Some h /\ thr_idle h = true /\ th_exited h = false;
  i_active_busy : s_shut s = false -> forall t, In t (s_active s) -> exists h c, tget t (s_thr s) = Some h /\ th_client h = Some c;
  i_thr_wf : forall t h, tget t (s_thr s) = Some h -> thr_wf h;
  (* every thread object is in exactly the place the code keeps it *)
  i_place : forall t h, tget t (s_thr s) = Some h ->
                        th_exited h = true \/ In t (s_avail s) \/ In t (s_active s) \/ In t (joinlist (s_sd s));
  i_count : length (s_avail s) + length (s_active s) <= s_max s;
  i_reg_cl : forall c, ~ In c (s_cl s) -> tget c (s_reg s) = None;
  i_shut_sd : s_shut s = false <-> s_sd s = SdNone;
  i_sd_tabs : match s_sd s with
              | SdJoinAvail _ _ => s_avail s = []
              | SdJoinActive _ _ | SdDone => s_avail s = [] /\ s_active s = []
              | _ => True
              end
}.

(* the clients inside UnregisterClient() *)
Record UInv (s : st) : Prop := {
  (* _waitingForCompletion holds exactly the clients blocked in Wait() that were not notified yet *)
  u_wait : forall c, In c (s_wait s) <-> tget c (s_unreg s) = Some (UWaiting false);
  u_out : forall c, tget c (s_unreg s) = Some (UWaiting false) -> outstanding s c = true;
  u_done : forall c u, tget c (s_unreg s) = Some u -> u <> UWaiting false -> outstanding s c = false
}.

(* no idle capacity while a client waits for a thread (established by every dispatch) *)
Definition WC (s : st) : Prop :=
  s_shut s = false -> s_pend s <> [] -> s_avail s = [] /\ s_max s <= length (s_active s).

Lemma thr_wf_idle : thr_wf idle_thr.
Proof. unfold thr_wf, idle_thr; cbn. repeat split; try discriminate; auto. Qed.

Lemma thr_wf_exited : forall e, thr_wf (mkThr None [] false e).
Proof. intros e. unfold thr_wf; cbn. repeat split; auto; discriminate. Qed.

Lemma thr_idle_spec : forall h, thr_idle h = true <-> th_client h = None /\ th_queue h = [] /\ th_running h = false.
Proof.
  intros [c q r e]; unfold thr_idle; cbn. destruct c; [split; [discriminate|intros [H _]; discriminate]|].
  destruct q; cbn; [|split; [discriminate|intros [_ [H _]]; discriminate]].
  destruct r; cbn; split; auto; intros [_ [_ H]]; auto; discriminate.
Qed.

Lemma outstanding_eq : forall s s' c,
  tget c (s_reg s') = tget c (s_reg s) -> tget c (s_pend s') = tget c (s_pend s) -> tget c (s_defer s') = tget c (s_defer s) ->
  outstanding s' c = outstanding s c.
Proof. intros s s' c H1 H2 H3. unfold outstanding, handled, qof. now rewrite H1, H2, H3. Qed.

(* the assertion flag is not part of the invariant *)
Lemma SInv_set_bad : forall s b, SInv s -> SInv (set_bad s b).
Proof. intros s b H. destruct H. constructor; sst; auto. Qed.

(* name every clause of SInv (the names do not depend on the auto-naming of [destruct]) *)
Ltac dI I :=
  pose proof (i_nd_pend _ I) as i_nd_pend0; pose proof (i_nd_thr _ I) as i_nd_thr0;
  pose proof (i_nd_avail _ I) as i_nd_avail0; pose proof (i_nd_active _ I) as i_nd_active0;
  pose proof (i_disj _ I) as i_disj0; pose proof (i_fresh_thr _ I) as i_fresh_thr0;
  pose proof (i_fresh_tab _ I) as i_fresh_tab0; pose proof (i_pend_ok _ I) as i_pend_ok0;
  pose proof (i_defer_ok _ I) as i_defer_ok0; pose proof (i_thr_reg _ I) as i_thr_reg0;
  pose proof (i_thr_uniq _ I) as i_thr_uniq0; pose proof (i_reg_thr _ I) as i_reg_thr0;
  pose proof (i_avail_idle _ I) as i_avail_idle0; pose proof (i_active_busy _ I) as i_active_busy0;
  pose proof (i_thr_wf _ I) as i_thr_wf0; pose proof (i_place _ I) as i_place0;
  pose proof (i_count _ I) as i_count0; pose proof (i_reg_cl _ I) as i_reg_cl0;
  pose proof (i_shut_sd _ I) as i_shut_sd0; pose proof (i_sd_tabs _ I) as i_sd_tabs0.

(* ---------------------------------------------------------------- spawn *)

Lemma spawn_inv : forall s, SInv s -> s_shut s = false -> s_avail s = [] -> length (s_active s) < s_max s -> SInv (spawn s).
Proof.
  intros s I Hsh Hav Hlt. dI I. unfold spawn. rewrite Hav in *.
  assert (Hfr : tget (s_ctr s) (s_thr s) = None).
  { destruct (tget (s_ctr s) (s_thr s)) eqn:E; auto. apply i_fresh_thr0 in E. lia. }
  constructor; sst; auto.
  - now apply tkeys_tset_nodup.
  - repeat constructor. cbn. tauto.
  - intros t [<-|[]] Hin. assert (s_ctr s < s_ctr s) by (apply i_fresh_tab0; tauto). lia.
  - intros t h. rewrite tget_tset. destruct (Nat.eqb_spec t (s_ctr s)); [lia|]. intros H. apply i_fresh_thr0 in H. lia.
  - intros t [[<-|[]]|H]; [lia|]. assert (t < s_ctr s) by (apply i_fresh_tab0; tauto). lia.
  - intros t h c. rewrite tget_tset. destruct (Nat.eqb_spec t (s_ctr s)); [intros H; injection H as <-; discriminate|]. apply i_thr_reg0.
  - intros t1 t2 h1 h2 c. rewrite !tget_tset.
    destruct (Nat.eqb_spec t1 (s_ctr s)); [intros H; injection H as <-; discriminate|].
    destruct (Nat.eqb_spec t2 (s_ctr s)); [intros _ H; injection H as <-; discriminate|]. apply i_thr_uniq0.
  - intros _ c Hc. destruct (i_reg_thr0 Hsh c Hc) as [t [h [Ht Hcl]]]. exists t, h. split; auto.
    rewrite tget_tset. destruct (Nat.eqb_spec t (s_ctr s)); auto. subst. congruence.
  - intros t [<-|[]]. exists idle_thr. rewrite tget_tset_same. auto.
  - intros _ t Hin. destruct (i_active_busy0 Hsh t Hin) as [h [c [Ht Hc]]]. exists h, c. split; auto.
    rewrite tget_tset. destruct (Nat.eqb_spec t (s_ctr s)); auto. subst. congruence.
  - intros t h. rewrite tget_tset. destruct (Nat.eqb_spec t (s_ctr s)); [intros H; injection H as <-; apply thr_wf_idle|]. apply i_thr_wf0.
  - intros t h. rewrite tget_tset. destruct (Nat.eqb_spec t (s_ctr s)) as [->|Hn]; [cbn; tauto|].
    intros H. apply i_place0 in H. cbn in *. tauto.
  - apply i_shut_sd0 in Hsh. now rewrite Hsh.
Qed.

(* ---------------------------------------------------------------- assign *)

Lemma assign_inv : forall s t c mq rest,
  SInv s -> s_shut s = false -> last_opt (s_avail s) = Some t -> s_pend s = (c, mq) :: rest -> mq <> [] ->
  SInv (assign s t c mq).
Proof.
  intros s t c mq rest I Hsh Hlast Hp Hmq. dI I.
  assert (Hin : In t (s_avail s)) by now apply last_opt_In.
  destruct (i_avail_idle0 t Hin) as [h0 [Ht0 [Hidle Hex]]].
  apply thr_idle_spec in Hidle. destruct Hidle as [Hc0 [Hq0 Hr0]].
  assert (Hpc : tget c (s_pend s) = Some mq) by (rewrite Hp; apply tget_hd).
  destruct (i_pend_ok0 c mq Hpc) as [_ Hregc].
  assert (Hnoc : forall t' h', tget t' (s_thr s) = Some h' -> th_client h' <> Some c).
  { intros t' h' Ht' Hcl. rewrite (i_thr_reg0 _ _ _ Ht' Hcl) in Hregc. discriminate. }
  assert (Hrest : forall c', c' <> c -> tget c' rest = tget c' (s_pend s)).
  { intros c' Hn. rewrite Hp. now rewrite tget_tl_other. }
  assert (Hrc : tget c rest = None).
  { rewrite Hp in i_nd_pend0. now apply tget_tl_same in i_nd_pend0. }
  assert (Hsd : s_sd s = SdNone) by now apply i_shut_sd0.
  unfold assign, thr_of. rewrite Ht0. sst. rewrite Hp. cbn [tl]. rewrite Hr0, Hex.
  constructor; sst; auto.
  - rewrite Hp in i_nd_pend0. now inversion i_nd_pend0.
  - now apply tkeys_tset_nodup.
  - now apply lrem_nodup.
  - apply NoDup_app_single; auto. intros H. eapply i_disj0; eauto.
  - intros t'. rewrite lrem_In, In_app_single. intros [Hn Ha] [Hb|Hb]; [eapply i_disj0; eauto|congruence].
  - intros t' h'. rewrite tget_tset. destruct (Nat.eqb_spec t' t) as [->|Hn]; [intros _; apply i_fresh_tab0; tauto|apply i_fresh_thr0].
  - intros t'. rewrite lrem_In, In_app_single. intros H. apply i_fresh_tab0.
    destruct H as [[_ H]|[[H| ->]|H]]; tauto.
  - intros c' q Hg. destruct (Nat.eq_dec c' c) as [->|Hn]; [congruence|].
    rewrite Hrest in Hg by auto. apply i_pend_ok0 in Hg. destruct Hg as [Hq Hr]. split; auto.
    now rewrite tget_tset_other.
  - intros c' q Hg Hq. rewrite tget_tset. destruct (Nat.eqb_spec c' c); auto. eapply i_defer_ok0; eauto.
  - intros t' h' c'. rewrite !tget_tset. destruct (Nat.eqb_spec t' t) as [->|Hn].
    + intros H; injection H as <-. cbn. intros H; injection H as <-. now rewrite Nat.eqb_refl.
    + intros Hg Hcl. destruct (Nat.eqb_spec c' c); auto. eapply i_thr_reg0; eauto.
  - intros t1 t2 h1 h2 c'. rewrite !tget_tset.
    destruct (Nat.eqb_spec t1 t) as [->|Hn1]; destruct (Nat.eqb_spec t2 t) as [->|Hn2]; auto.
    + intros H Hg; injection H as <-. cbn. intros H; injection H as <-. intros Hcl. exfalso. eapply Hnoc; eauto.
    + intros Hg H; injection H as <-. cbn. intros Hcl H; injection H as <-. exfalso. eapply Hnoc; eauto.
    + apply i_thr_uniq0.
  - intros _ c'. rewrite tget_tset. destruct (Nat.eqb_spec c' c) as [->|Hn].
    + intros _. exists t. eexists. rewrite tget_tset_same. split; [reflexivity|reflexivity].
    + intros Hc'. destruct (i_reg_thr0 Hsh c' Hc') as [t' [h' [Ht' Hcl']]]. exists t', h'. split; auto.
      rewrite tget_tset. destruct (Nat.eqb_spec t' t) as [->|]; auto. congruence.
  - intros t'. rewrite lrem_In. intros [Hn Ha]. destruct (i_avail_idle0 t' Ha) as [h' [H1 H2]].
    exists h'. split; auto. now rewrite tget_tset_other.
  - intros _ t'. rewrite In_app_single. intros [Ha| ->].
    + destruct (i_active_busy0 Hsh t' Ha) as [h' [c' [H1 H2]]]. exists h', c'. split; auto.
      rewrite tget_tset_other; auto. intros ->. eapply i_disj0; eauto.
    + eexists. exists c. rewrite tget_tset_same. split; reflexivity.
  - intros t' h'. rewrite tget_tset. destruct (Nat.eqb_spec t' t) as [->|Hn]; [|apply i_thr_wf0].
    intros H; injection H as <-. unfold thr_wf; cbn. repeat split; intros; discriminate.
  - intros t' h'. rewrite tget_tset. destruct (Nat.eqb_spec t' t) as [->|Hn].
    + intros _. right. right. left. rewrite In_app_single. tauto.
    + intros H. apply i_place0 in H. rewrite lrem_In, In_app_single. tauto.
  - rewrite app_length. cbn [length]. pose proof (lrem_length t (s_avail s) i_nd_avail0 Hin). lia.
  - intros c' Hn. rewrite tget_tset. destruct (Nat.eqb_spec c' c) as [->|]; auto.
    rewrite (i_reg_cl0 c Hn) in Hregc. discriminate.
  - now rewrite Hsd.
Qed.

(* ---------------------------------------------------------------- the dispatch loop *)

Lemma spawn_frame : forall s,
  s_shut (spawn s) = s_shut s /\ s_max (spawn s) = s_max s /\ s_pend (spawn s) = s_pend s /\ s_reg (spawn s) = s_reg s /\
  s_defer (spawn s) = s_defer s /\ s_wait (spawn s) = s_wait s /\ s_cl (spawn s) = s_cl s /\ s_unreg (spawn s) = s_unreg s /\
  s_sd (spawn s) = s_sd s /\ s_active (spawn s) = s_active s /\ s_avail (spawn s) = s_avail s ++ [s_ctr s].
Proof. intros. unfold spawn; sst. repeat split. Qed.

Lemma assign_frame : forall s t c mq,
  s_shut (assign s t c mq) = s_shut s /\ s_max (assign s t c mq) = s_max s /\ s_pend (assign s t c mq) = tl (s_pend s) /\
  s_defer (assign s t c mq) = s_defer s /\ s_wait (assign s t c mq) = s_wait s /\ s_cl (assign s t c mq) = s_cl s /\
  s_unreg (assign s t c mq) = s_unreg s /\ s_sd (assign s t c mq) = s_sd s.
Proof. intros. unfold assign; sst. repeat split. Qed.

(* one iteration of the while loop, seen from outside: what the loop does with a well-formed state *)
Lemma dispatch_loop_unfold : forall f s c m0 mq rest,
  SInv s -> s_pend s = (c, m0 :: mq) :: rest ->
  dispatch_loop (S f) s =
  let s0 := massert true s in
  let s1 := if is_nil (s_avail s0) && (length (s_active s0) <? s_max s0) then spawn s0 else s0 in
  match last_opt (s_avail s1) with
  | Some t => dispatch_loop f (assign s1 t c (m0 :: mq))
  | None => s1
  end.
Proof.
  intros f s c m0 mq rest I Hp. cbn [dispatch_loop]. rewrite Hp.
  assert (Hg : tget c (s_pend s) = Some (m0 :: mq)) by (rewrite Hp; apply tget_hd).
  destruct (i_pend_ok _ I _ _ Hg) as [_ Hr]. rewrite Hr. reflexivity.
Qed.

Lemma pend_head_ok : forall s c mq rest, SInv s -> s_pend s = (c, mq) :: rest -> mq <> [].
Proof.
  intros s c mq rest I Hp. assert (Hg : tget c (s_pend s) = Some mq) by (rewrite Hp; apply tget_hd).
  now destruct (i_pend_ok _ I _ _ Hg).
Qed.

(* The loop is a sequence of [massert true], [spawn] and [assign] steps, each taken from a state that satisfies SInv
   under the side conditions below.  So a reflexive, transitive relation that these steps respect relates the state
   before the loop to the state after it; and with enough fuel the loop stops only when nobody waits or nothing can
   be had (no idle thread, none to be created). *)
Section DispatchRel.
  Variable R : st -> st -> Prop.
  Hypothesis R_refl : forall s, R s s.
  Hypothesis R_trans : forall s1 s2 s3, R s1 s2 -> R s2 s3 -> R s1 s3.
  Hypothesis R_massert : forall s, R s (massert true s).
  Hypothesis R_spawn : forall s, SInv s -> s_shut s = false -> s_avail s = [] -> length (s_active s) < s_max s -> R s (spawn s).
  Hypothesis R_assign : forall s t c mq rest,
    SInv s -> s_shut s = false -> last_opt (s_avail s) = Some t -> s_pend s = (c, mq) :: rest -> mq <> [] -> R s (assign s t c mq).

  Lemma dispatch_loop_rel : forall fuel s, SInv s -> s_shut s = false ->
    let s' := dispatch_loop fuel s in
    R s s' /\ (length (s_pend s) <= fuel -> s_pend s' = [] \/ (s_avail s' = [] /\ s_max s' <= length (s_active s'))).
  Proof.
    induction fuel as [|f IH]; intros s I Hsh; cbv zeta.
    { split; [apply R_refl|]. intros Hlen. left. cbn. destruct (s_pend s); auto. cbn in Hlen. lia. }
    destruct (s_pend s) as [|[c mq] rest] eqn:Hp; [cbn [dispatch_loop]; rewrite Hp; auto|].
    pose proof (pend_head_ok _ _ _ _ I Hp) as Hmq. destruct mq as [|m0 mq]; [congruence|].
    rewrite (dispatch_loop_unfold f s c m0 mq rest I Hp). cbv zeta.
    pose proof (R_massert s) as R0.
    apply (SInv_set_bad s (s_bad s || negb true)) in I. fold (massert true s) in I.
    set (s0 := massert true s) in *. change (s_shut s0 = false) in Hsh. change (s_pend s0 = (c, m0 :: mq) :: rest) in Hp.
    set (s1 := if is_nil (s_avail s0) && (length (s_active s0) <? s_max s0) then spawn s0 else s0).
    assert (H1 : SInv s1 /\ R s0 s1 /\ s_shut s1 = false /\ s_pend s1 = (c, m0 :: mq) :: rest /\
                 (last_opt (s_avail s1) = None -> s_avail s1 = [] /\ s_max s1 <= length (s_active s1))).
    { unfold s1. destruct (is_nil (s_avail s0) && (length (s_active s0) <? s_max s0)) eqn:Hsp.
      - apply andb_true_iff in Hsp. destruct Hsp as [Hnil Hlt]. apply is_nil_true in Hnil. apply Nat.ltb_lt in Hlt.
        split; [now apply spawn_inv|]. split; [now apply R_spawn|]. split; [assumption|]. split; [assumption|].
        unfold spawn; sst. intros Hl. apply last_opt_None in Hl. destruct (s_avail s0); discriminate.
      - split; [assumption|]. split; [apply R_refl|]. split; [assumption|]. split; [assumption|].
        intros Hl. apply last_opt_None in Hl. split; [assumption|]. rewrite Hl in Hsp. now apply Nat.ltb_ge in Hsp. }
    destruct H1 as [I1 [R1 [Hsh1 [Hp1 Hstop]]]]. pose proof (R_trans _ _ _ R0 R1) as R01.
    destruct (last_opt (s_avail s1)) as [t|] eqn:Hl; [|auto].
    destruct (IH (assign s1 t c (m0 :: mq))) as [R2 Hst]; [eapply assign_inv; eauto; discriminate|exact Hsh1|].
    split.
    - eapply R_trans; [exact R01|]. eapply R_trans; [|exact R2]. eapply R_assign; eauto; discriminate.
    - intros Hlen. apply Hst. unfold assign; sst. rewrite Hp1. cbn [tl length] in *. lia.
  Qed.

  Lemma dispatch_rel : forall s, SInv s -> R s (dispatch s).
  Proof. intros s I. unfold dispatch. destruct (s_shut s) eqn:Hsh; [apply R_refl|now apply dispatch_loop_rel]. Qed.
End DispatchRel.

Lemma dispatch_inv : forall s, SInv s -> SInv (dispatch s) /\ WC (dispatch s).
Proof.
  intros s I. split.
  - refine (dispatch_rel (fun a b => SInv a -> SInv b) _ _ _ _ _ s I I); auto using spawn_inv.
    + intros s0. apply SInv_set_bad.
    + intros; eapply assign_inv; eauto.
  - unfold dispatch. destruct (s_shut s) eqn:Hsh; intros Hsh' Hne; [congruence|].
    destruct (dispatch_loop_rel (fun _ _ => True)) with (fuel := length (s_pend s)) (s := s) as [_ [H|H]]; auto. congruence.
Qed.

(* what a dispatch leaves alone *)
Lemma dispatch_frame : forall s, SInv s ->
  s_shut (dispatch s) = s_shut s /\ s_max (dispatch s) = s_max s /\
  s_defer (dispatch s) = s_defer s /\ s_wait (dispatch s) = s_wait s /\
  s_cl (dispatch s) = s_cl s /\ s_unreg (dispatch s) = s_unreg s /\ s_sd (dispatch s) = s_sd s.
Proof.
  apply (dispatch_rel (fun a b => s_shut b = s_shut a /\ s_max b = s_max a /\ s_defer b = s_defer a /\ s_wait b = s_wait a /\
                                  s_cl b = s_cl a /\ s_unreg b = s_unreg a /\ s_sd b = s_sd a)).
  - (* reflexive *) intros; repeat split.
  - (* transitive *)
    intros s1 s2 s3 [A1 [A2 [A3 [A4 [A5 [A6 A7]]]]]] [B1 [B2 [B3 [B4 [B5 [B6 B7]]]]]]. repeat split; congruence.
  - (* massert, spawn and assign write none of these fields *) intros; repeat split.
  - intros; repeat split.
  - intros; repeat split.
Qed.

(* dispatching never changes whether a client has something outstanding (it moves pending work to a thread) *)
Lemma assign_outstanding : forall s t c mq rest c',
  SInv s -> s_pend s = (c, mq) :: rest -> mq <> [] ->
  outstanding (assign s t c mq) c' = outstanding s c'.
Proof.
  intros s t c mq rest c' I Hp Hmq.
  assert (Hpc : tget c (s_pend s) = Some mq) by (rewrite Hp; apply tget_hd).
  destruct (Nat.eq_dec c' c) as [->|Hn].
  - unfold outstanding at 2. unfold qof. rewrite Hpc. destruct mq; [congruence|]. cbn [is_nil negb]. rewrite orb_true_r. cbn [orb].
    unfold outstanding, handled, assign; sst. now rewrite tget_tset_same.
  - apply outstanding_eq; unfold assign; sst; auto.
    + now apply tget_tset_other.
    + rewrite Hp. cbn [tl]. symmetry. now apply tget_tl_other.
Qed.

Lemma dispatch_outstanding : forall s c', SInv s -> outstanding (dispatch s) c' = outstanding s c'.
Proof.
  intros s c'. apply (dispatch_rel (fun a b => outstanding b c' = outstanding a c')); auto; [intros; congruence|].
  intros; eapply assign_outstanding; eauto.
Qed.

Lemma dispatch_uinv : forall s, SInv s -> UInv s -> UInv (dispatch s).
Proof.
  intros s I [U1 U2 U3]. destruct (dispatch_frame s I) as [_ [_ [_ [F4 [_ [F6 _]]]]]].
  constructor; intros c; rewrite ?F4, ?F6, ?dispatch_outstanding by auto; auto. apply U3.
Qed.

(* the assertion flag stays down through a dispatch: the thread a client is assigned to is idle *)
Lemma dispatch_bad : forall s, SInv s -> s_bad s = false -> s_bad (dispatch s) = false.
Proof.
  intros s. apply (dispatch_rel (fun a b => s_bad a = false -> s_bad b = false)); auto.
  - intros s0 Hb. sst. now rewrite Hb.
  - intros s1 t c mq rest I1 _ Hl _ _ Hb1. apply last_opt_In in Hl. destruct (i_avail_idle _ I1 t Hl) as [h [Ht [Hid _]]].
    apply thr_idle_spec in Hid. destruct Hid as [Hc [Hq _]].
    unfold assign, thr_of. rewrite Ht. sst. rewrite Hb1, Hc, Hq. reflexivity.
Qed.

(* ---------------------------------------------------------------- WaitCondition::Notify() *)

(* [notify], on the table of unregistering clients alone: it changes nothing else *)
Definition wake (u : table ustate) (c : client) : table ustate :=
  match tget c u with Some (UWaiting _) => tset c (UWaiting true) u | _ => u end.

Lemma set_unreg_id : forall s, set_unreg s (s_unreg s) = s.
Proof. now intros []. Qed.

Lemma notify_wake : forall s c, notify s c = set_unreg s (wake (s_unreg s) c).
Proof.
  intros s c. unfold notify, wake. destruct (tget c (s_unreg s)) as [[|]|]; [reflexivity|..]; symmetry; apply set_unreg_id.
Qed.

Lemma fold_notify_wake : forall l s, fold_left notify l s = set_unreg s (fold_left wake l (s_unreg s)).
Proof.
  induction l as [|a l IH]; intros s; cbn [fold_left]; [symmetry; apply set_unreg_id|].
  rewrite IH, notify_wake. reflexivity.
Qed.

Lemma tget_wake_other : forall u a c, c <> a -> tget c (wake u a) = tget c u.
Proof. intros u a c Hn. unfold wake. destruct (tget a u) as [[b|]|]; rewrite ?tget_tset_other by auto; reflexivity. Qed.

Lemma tget_wake : forall u a c, tget c (wake u a) =
  match tget c u with Some (UWaiting b) => Some (UWaiting (b || Nat.eqb c a)) | x => x end.
Proof.
  intros u a c. destruct (Nat.eqb_spec c a) as [->|Hn].
  - unfold wake. destruct (tget a u) as [[b|]|] eqn:E; rewrite ?tget_tset_same, ?E, ?orb_true_r; reflexivity.
  - rewrite tget_wake_other by auto. destruct (tget c u) as [[b|]|]; rewrite ?orb_false_r; reflexivity.
Qed.

Lemma tget_fold_wake : forall l u c, tget c (fold_left wake l u) =
  match tget c u with Some (UWaiting b) => Some (UWaiting (b || lmem c l)) | x => x end.
Proof.
  induction l as [|a l IH]; intros u c; cbn [fold_left].
  - destruct (tget c u) as [[b|]|]; cbn; rewrite ?orb_false_r; reflexivity.
  - rewrite IH, tget_wake. destruct (tget c u) as [[b|]|]; auto. unfold lmem. cbn [existsb]. now rewrite orb_assoc.
Qed.

(* the final section of Shutdown(), field by field *)
Lemma shut_end_eq : forall s, shut_end s =
  (mkSt (s_max s) (s_shut s) (s_ctr s) [] [] [] [] [] [] (s_thr s)
        (filter (fun c => match tget c (s_reg s) with Some _ => false | None => true end) (s_cl s))
        (fold_left wake (s_wait s) (s_unreg s)) SdDone (s_bad s),
   map ENotify (s_wait s) ++ [EShutDone]).
Proof. intros s. unfold shut_end. rewrite fold_notify_wake. destruct s. reflexivity. Qed.
