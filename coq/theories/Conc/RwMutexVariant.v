(* C18 -- the "obvious repair" of known finding F22 is wrong.  Variant of the upgrade path in which the restoring re-lock
   honours the caller's deadline (LockReadOnly(optTimeoutTimestamp) instead of LockReadOnly()): a timed upgrade that failed can
   then return B_TIMED_OUT holding NO lock at all, although the caller's completed calls entitle it to its read lock.
   Only the continuation function differs from RwMutexModel (the critical sections are shared); the deadline is carried through
   the FInner/FRelock frames encoded in their count field (n*3 + code of the deadline).  The variant is exact on the path the
   witness takes (first re-lock fails after the inner call failed: nothing to unlock, the error is returned). *)
From Coq Require Import List Arith Bool.
Import ListNotations.
From Muscle Require Import Conc.RwMutexModel Conc.RwMutexInv.

Definition code (d : tmo) : nat := match d with Never => 0 | Try => 1 | Timed => 2 end.
Definition dec_d (m : nat) : tmo := match Nat.modulo m 3 with 0 => Never | 1 => Try | _ => Timed end.
Definition dec_n (m : nat) : nat := Nat.div m 3.
Definition enc (n : nat) (d : tmo) : nat := n * 3 + code d.

Fixpoint finishV (stk : list frame) (s : status) : (act * list frame) + status :=
  match stk with
  | [] => inr s
  | FDrop n i d :: k =>
      match s with
      | SOk => if Nat.ltb (S i) n then inl (AEnterUnRO, FDrop n (S i) d :: k) else inl (AEnterRW d, FInner (enc n d) :: k)
      | _ => finishV k s
      end
  | FInner m :: k =>
      match dec_n m with
      | 0 => finishV k s
      | S _ => inl (AEnterRO (dec_d m), FRelock m 0 s :: k)        (* the changed line: the caller's deadline, not Never *)
      end
  | FRelock m i lrw :: k =>
      match s with
      | SOk => if Nat.ltb (S i) (dec_n m) then inl (AEnterRO (dec_d m), FRelock m (S i) lrw :: k) else finishV k lrw
      | _ => finishV k s      (* i = 0 and lrw <> SOk: nothing to undo, return lroRet *)
      end
  end.

Definition completeV (l : loc) (s : status) : loc * option status :=
  match finishV (l_stk l) s with
  | inl (a, k) => (mkL a k (l_op l) (l_hro l) (l_hrw l), None)
  | inr s' => (mkL AIdle [] None (ghost_ro (l_op l) s' (l_hro l)) (ghost_rw (l_op l) s' (l_hrw l)), Some s')
  end.

Definition run_csV (pref : bool) (t : tid) (g : gst) (l : loc) : option (gst * loc) :=
  match cs pref t (l_act l) g with
  | None => None
  | Some (g', _, Done s) => Some (g', fst (completeV l s))
  | Some (g', _, Parked a' _) => Some (g', keep l a')
  | Some (g', _, Call a' f) => Some (g', mkL a' (f :: l_stk l) (l_op l) (l_hro l) (l_hrw l))
  end.

Definition stepV (pref : bool) (t : tid) (c : choice) (g : gst) (l : loc) : option (gst * loc) :=
  match c with
  | CRun =>
      match l_act l with
      | AParkRO d => match find t (g_wr g) with Some (S _) => Some (set_wr g (setc t 0 (g_wr g)), keep l (AWokeRO d true)) | _ => None end
      | AParkRW d => match find t (g_ww g) with Some (S _) => Some (set_ww g (setc t 0 (g_ww g)), keep l (AWokeRW d true)) | _ => None end
      | _ => run_csV pref t g l
      end
  | CTimeout =>
      match l_act l with
      | AParkRO Timed => Some (g, keep l (AWokeRO Timed false))
      | AParkRW Timed => Some (g, keep l (AWokeRW Timed false))
      | _ => None
      end
  end.

Definition sys_stepV (pref : bool) (s : sys) (lab : label) : option sys :=
  match lab with
  | LBegin t o => match begin_op o (s_l s t) with Some l' => Some (mkS (s_g s) (upd (s_l s) t l')) | None => None end
  | LStep t c => match stepV pref t c (s_g s) (s_l s t) with Some (g', l') => Some (mkS g' (upd (s_l s) t l')) | None => None end
  | LEnv p => Some (mkS (set_pool (s_g s) p) (s_l s))
  end.

Inductive reachableV (pref : bool) : sys -> Prop :=
| reachV_init : reachableV pref sys0
| reachV_step : forall s lab s', reachableV pref s -> sys_stepV pref s lab = Some s' -> reachableV pref s'.

Fixpoint runV (pref : bool) (labs : list label) (s : sys) : option sys :=
  match labs with
  | [] => Some s
  | a :: r => match sys_stepV pref s a with Some s' => runV pref r s' | None => None end
  end.

Lemma runV_reachable : forall pref labs s s', reachableV pref s -> runV pref labs s = Some s' -> reachableV pref s'.
Proof.
  induction labs as [|a r IH]; cbn [runV]; intros s s' Hr H.
  - inversion H; subst; auto.
  - destruct (sys_stepV pref s a) as [s1|] eqn:E; [|discriminate]. eapply IH; [|eauto]. eapply reachV_step; eauto.
Qed.

(* threads 0 and 1 read; 0 asks for a timed upgrade, gives its read lock up, times out behind 1; 1 (now the only reader)
   upgrades; 0's restoring re-lock parks WITH the expired deadline, times out, and LockReadWrite(deadline) returns B_TIMED_OUT *)
Definition variant_trace : list label :=
  [LBegin 0 (OLockRO Never); LStep 0 CRun; LBegin 1 (OLockRO Never); LStep 1 CRun;
   LBegin 0 (OLockRW Timed); LStep 0 CRun; LStep 0 CRun; LStep 0 CRun; LStep 0 CTimeout; LStep 0 CRun;
   LBegin 1 (OLockRW Never); LStep 1 CRun;
   LStep 0 CRun; LStep 0 CTimeout; LStep 0 CRun].

(* "lock state unchanged on failure" and exclusion at the level of the returned calls both fail in the variant: thread 0 is
   outside any call, its returned calls entitle it to one read lock (its failed LockReadWrite changed nothing), yet the table
   has no entry for it -- and thread 1 holds the lock for writing *)
Lemma relock_with_deadline_refuted : forall pref,
  exists s, reachableV pref s /\ l_act (s_l s 0) = AIdle /\ l_hro (s_l s 0) = 1 /\ find 0 (g_exec (s_g s)) = None /\
            find 0 (g_exec (s_g s)) <> exp_ent (s_l s 0) /\ find 1 (g_exec (s_g s)) = Some (mkEnt 1 1).
Proof.
  intros pref.
  destruct pref; (eexists; split; [eapply runV_reachable with (labs := variant_trace); [apply reachV_init | vm_compute; reflexivity]|]);
    vm_compute; repeat split; auto; discriminate.
Qed.
