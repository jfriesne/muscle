(* C19 -- the theorems about the ThreadPool LTS, for every run (every list of labels from the initial state). *)
From Coq Require Import List Arith Bool Lia.
From Muscle Require Import Conc.TPool Conc.TPoolLemmas Conc.TPoolInv Conc.TPoolStep Conc.TPoolTrace.
Import ListNotations.

Lemma run_reach_gen : forall n ls s0 tr0 s tr,
  reach n s0 tr0 -> run s0 ls = Some (s, tr) -> reach n s (tr0 ++ tr).
Proof.
  intros n ls. induction ls as [|l r IH]; intros s0 tr0 s tr R H; cbn in H.
  - injection H as <- <-. now rewrite app_nil_r.
  - destruct (step s0 l) as [[s1 e1]|] eqn:Hs; [|discriminate].
    destruct (run s1 r) as [[s2 e2]|] eqn:Hr; [|discriminate]. injection H as <- <-.
    rewrite app_assoc. eapply IH; eauto. eapply reach_step; eauto.
Qed.

Lemma run_reach : forall n ls s tr, run (init n) ls = Some (s, tr) -> reach n s tr.
Proof. intros n ls s tr H. apply (run_reach_gen n ls (init n) [] s tr (reach_init n) H). Qed.

(* ---------------------------------------------------------------- exactly once, in order *)

(* For every run and every client: (1) what was passed to the handler is a prefix of what was accepted -- nothing is
   handled that was not submitted, nothing twice, nothing out of order; (2) at most the last entered Message has not
   returned yet; (3) until Shutdown() has run, nothing is lost: the accepted Messages are exactly the handled ones
   followed by those the pool still holds (in handling order). *)
Theorem pool_exactly_once_in_order : forall n ls s tr, run (init n) ls = Some (s, tr) -> forall c,
  (exists rest, entered tr c ++ rest = submitted tr c) /\
  (exists cur, entered tr c = exited tr c ++ cur /\ length cur <= 1) /\
  (s_sd s <> SdDone -> submitted tr c = exited tr c ++ queued s c).
Proof.
  intros n ls s tr H c. apply run_reach in H. destruct (reach_tinv _ _ _ H c) as [T1 [T2 [T3 T4]]].
  split; [exact T4|]. split.
  - exists (runhead s c). split; auto. unfold runhead. destruct (worker s c) as [[t h]|]; cbn; auto.
    destruct (th_running h); cbn; auto. destruct (th_queue h); cbn; auto.
  - intros Hsd. symmetry. auto.
Qed.

(* ---------------------------------------------------------------- one at a time *)

Theorem pool_client_serial : forall n ls s tr, run (init n) ls = Some (s, tr) ->
  (forall c, serial tr c = true) /\
  (forall t1 t2 h1 h2 c, tget t1 (s_thr s) = Some h1 -> tget t2 (s_thr s) = Some h2 ->
                         th_client h1 = Some c -> th_client h2 = Some c -> t1 = t2) /\
  length (s_active s) <= s_max s.
Proof.
  intros n ls s tr H. apply run_reach in H. pose proof (reach_tinv _ _ _ H) as T. destruct (reach_inv _ _ _ H) as [I [U W]].
  split; [|split].
  - intros c. destruct (T c) as [_ [_ [T3 _]]]. unfold serial. apply scan_serial. congruence.
  - apply (i_thr_uniq _ I).
  - pose proof (i_count _ I). lia.
Qed.

(* ---------------------------------------------------------------- work conserving *)

(* Until Shutdown() begins: if a registered client that no thread is handling has Messages queued, then no pool thread
   is idle and the pool is at its thread limit, every one of its threads working for some (other) client. *)
Theorem pool_work_conserving : forall n ls s tr, run (init n) ls = Some (s, tr) -> s_shut s = false ->
  forall c, tget c (s_reg s) = Some false -> qof (s_pend s) c ++ qof (s_defer s) c <> [] ->
  s_avail s = [] /\ length (s_active s) = s_max s /\
  forall t, In t (s_active s) -> exists h c', tget t (s_thr s) = Some h /\ th_client h = Some c' /\ c' <> c.
Proof.
  intros n ls s tr H Hsh c Hr Hq. apply run_reach in H. destruct (reach_inv _ _ _ H) as [I [U W]].
  rewrite (defer_empty_unhandled s c I Hr), app_nil_r in Hq.
  assert (Hp : s_pend s <> []).
  { intros E. unfold qof in Hq. rewrite E in Hq. cbn in Hq. congruence. }
  destruct (W Hsh Hp) as [Hav Hmax]. pose proof (i_count _ I) as Hc. rewrite Hav in Hc. cbn in Hc.
  split; auto. split; [lia|].
  intros t Ht. destruct (i_active_busy _ I Hsh t Ht) as [h [c' [H1 H2]]]. exists h, c'. repeat split; auto.
  intros ->. rewrite (i_thr_reg _ I t h c H1 H2) in Hr. discriminate.
Qed.

(* ---------------------------------------------------------------- unregister waits *)

Lemma not_outstanding_all_handled : forall s tr c,
  Inv s -> TInv s tr -> outstanding s c = false -> s_sd s <> SdDone -> exited tr c = submitted tr c /\ worker s c = None.
Proof.
  intros s tr c [I [U W]] T Ho Hsd. destruct (not_outstanding s c I Ho) as [Hh [Hpn Hdn]].
  assert (Wn : worker s c = None).
  { apply worker_none; auto. intros t h Ht Hc. unfold handled in Hh. rewrite (i_thr_reg _ I t h c Ht Hc) in Hh. discriminate. }
  split; auto. destruct (T c) as [T1 _]. rewrite <- T1 by auto. unfold queued, inflight. rewrite Wn, Hdn. unfold qof. rewrite Hpn.
  now rewrite app_nil_r.
Qed.

(* For every run and client c: (1) _waitingForCompletion holds c exactly while c's UnregisterClient() is blocked and
   not yet notified; (2) while that is so, something of c is still outstanding (so the notification is still to come:
   pool_no_stuck shows a pool thread can move); (3) once c has been notified, or did not have to wait, nothing of c
   is outstanding and -- unless Shutdown() did the waking -- every Message c ever had accepted has been handled;
   in particular (4) SetThreadPool(NULL) returns only then. *)
Theorem unregister_waits : forall n ls s tr, run (init n) ls = Some (s, tr) -> forall c,
  (In c (s_wait s) <-> tget c (s_unreg s) = Some (UWaiting false)) /\
  (tget c (s_unreg s) = Some (UWaiting false) -> outstanding s c = true) /\
  (forall u, tget c (s_unreg s) = Some u -> u <> UWaiting false ->
             outstanding s c = false /\ (s_sd s <> SdDone -> exited tr c = submitted tr c /\ worker s c = None)) /\
  (forall s' ev, step s (LUnregEnd c) = Some (s', ev) -> s_sd s <> SdDone -> exited tr c = submitted tr c).
Proof.
  intros n ls s tr H c. apply run_reach in H. pose proof (reach_tinv _ _ _ H) as T. pose proof (reach_inv _ _ _ H) as HI.
  pose proof HI as [I [[U1 U2 U3] W]].
  assert (H3 : forall u, tget c (s_unreg s) = Some u -> u <> UWaiting false ->
             outstanding s c = false /\ (s_sd s <> SdDone -> exited tr c = submitted tr c /\ worker s c = None)).
  { intros u Hu Hne. pose proof (U3 c u Hu Hne) as Ho. split; auto. intros Hsd.
    eapply not_outstanding_all_handled; eauto. }
  split; [apply U1|]. split; [apply U2|]. split; [exact H3|].
  intros s' ev Hst Hsd. cbn [step] in Hst. destruct (tget c (s_unreg s)) as [[|]|] eqn:Hu; try discriminate.
  destruct (H3 UFinal eq_refl) as [_ H4]; [discriminate|]. now destruct (H4 Hsd).
Qed.

(* ---------------------------------------------------------------- progress *)

Definition thread_can_move (s : st) : Prop :=
  exists t, step s (LEnter t) <> None \/ step s (LExit t) <> None \/ step s (LFinish t) <> None.

Lemma busy_thread_moves : forall s t h c, SInv s -> tget t (s_thr s) = Some h -> th_client h = Some c -> thread_can_move s.
Proof.
  intros s t h c I Ht Hc. exists t. cbn [step]. rewrite Ht, Hc.
  destruct (i_thr_wf _ I t h Ht) as [W1 _].
  destruct (th_queue h) as [|m q] eqn:Hq; destruct (th_running h) eqn:Hr.
  - destruct (W1 eq_refl) as [Hne _]. congruence.
  - right. right. destruct (finished _ t c). discriminate.
  - right. left. discriminate.
  - left. discriminate.
Qed.

(* Until Shutdown() begins, whenever anything of any client is outstanding and the pool may have at least one thread,
   some pool thread has an enabled transition (handler entry, handler return or batch-finished): the pool itself never
   blocks outstanding work. *)
Theorem pool_no_stuck : forall n ls s tr, run (init n) ls = Some (s, tr) -> s_shut s = false -> 1 <= s_max s ->
  forall c, outstanding s c = true -> thread_can_move s.
Proof.
  intros n ls s tr H Hsh Hmax c Ho. apply run_reach in H. destruct (reach_inv _ _ _ H) as [I [U W]].
  unfold outstanding in Ho. apply orb_true_iff in Ho. destruct Ho as [Ho|Hd].
  apply orb_true_iff in Ho. destruct Ho as [Hh|Hp].
  - unfold handled in Hh. destruct (tget c (s_reg s)) as [[|]|] eqn:Hr; try discriminate.
    destruct (i_reg_thr _ I Hsh c Hr) as [t [h [Ht Hc]]]. eapply busy_thread_moves; eauto.
  - assert (Hpn : s_pend s <> []).
    { intros E. unfold qof in Hp. rewrite E in Hp. discriminate. }
    destruct (W Hsh Hpn) as [_ Hm]. destruct (s_active s) as [|t r] eqn:Ha; [cbn in Hm; lia|].
    destruct (i_active_busy _ I Hsh t) as [h [c' [Ht Hc]]]; [rewrite Ha; now left|]. eapply busy_thread_moves; eauto.
  - apply negb_true_iff, is_nil_false in Hd. unfold qof in Hd. destruct (tget c (s_defer s)) as [q|] eqn:E; [|congruence].
    pose proof (i_defer_ok _ I c q E Hd) as Hr.
    destruct (i_reg_thr _ I Hsh c Hr) as [t [h [Ht Hc]]]. eapply busy_thread_moves; eauto.
Qed.

(* ---------------------------------------------------------------- no MASSERT *)

Theorem pool_no_assert : forall n ls s tr, run (init n) ls = Some (s, tr) -> s_bad s = false.
Proof. intros n ls s tr H. apply run_reach in H. eapply reach_bad; eauto. Qed.

(* ---------------------------------------------------------------- Shutdown() terminates *)

(* what a pool thread still has to do before it is idle: 2 per Message of its batch, +1 to enter the next handler,
   +1 for the batch-finished call *)
Definition thr_work (h : thr) : nat :=
  match th_client h with
  | None => 0
  | Some _ => 2 * length (th_queue h) + (if th_running h then 0 else 1) + 1
  end.
Definition work (l : table thr) : nat := fold_right (fun e acc => thr_work (snd e) + acc) 0 l.

(* an upper bound on Shutdown()'s own remaining steps: one join per thread swapped out or still to be swapped out,
   one per swap, one for the final section; the 3 pays for the further round (two swaps, nothing to join) that
   ShutdownThreadsInTableWithoutDeadlocking makes after a round that saw a thread; so SdSwapAvail has 6 =
   two swaps + final section + one such round *)
Definition sd_weight (s : st) : nat :=
  match s_sd s with
  | SdNone => 0
  | SdSwapAvail => length (s_avail s) + length (s_active s) + 6
  | SdJoinAvail l nz => length l + length (s_active s) + 2 + (if nz || negb (is_nil (s_active s)) then 3 else 0)
  | SdJoinActive l nz => length l + 1 + (if nz then 3 else 0)
  | SdDone => 0
  end.
Definition sd_measure (s : st) : nat := sd_weight s + work (s_thr s).

Lemma work_tset_some : forall t h h' l, tget t l = Some h -> work (tset t h' l) + thr_work h = work l + thr_work h'.
Proof.
  intros t h h' l. unfold work. induction l as [|[k v] r IH]; cbn; [discriminate|].
  destruct (Nat.eqb_spec t k) as [->|Hn]; intros H.
  - injection H as ->. cbn. lia.
  - cbn. apply IH in H. lia.
Qed.

Lemma work_tset_none : forall t h' l, tget t l = None -> work (tset t h' l) = work l + thr_work h'.
Proof.
  intros t h' l. unfold work. induction l as [|[k v] r IH]; cbn; [lia|].
  destruct (Nat.eqb_spec t k) as [->|Hn]; [discriminate|]. intros H. cbn. apply IH in H. lia.
Qed.

Lemma idle_work : forall h, thr_idle h = true -> thr_work h = 0.
Proof. intros h H. apply thr_idle_spec in H. destruct H as [H _]. unfold thr_work. now rewrite H. Qed.

Lemma join_work : forall s t, thr_idle (thr_of s t) = true ->
  work (tset t (mkThr None [] false true) (s_thr s)) = work (s_thr s).
Proof.
  intros s t H. unfold thr_of in H. destruct (tget t (s_thr s)) as [h|] eqn:E.
  - pose proof (work_tset_some t h (mkThr None [] false true) _ E) as Hw. rewrite (idle_work h H) in Hw. cbn in Hw. lia.
  - rewrite work_tset_none by auto. cbn. lia.
Qed.

(* the three transitions of a busy pool thread *)
Lemma work_enter : forall t h c m q e l, tget t l = Some h -> th_client h = Some c -> th_queue h = m :: q -> th_running h = false ->
  work (tset t (mkThr (Some c) (m :: q) true e) l) + 1 = work l.
Proof.
  intros t h c m q e l Ht Hc Hq Hr. pose proof (work_tset_some t h (mkThr (Some c) (m :: q) true e) l Ht) as Hw.
  unfold thr_work in Hw. rewrite Hc, Hq, Hr in Hw. cbn [th_client th_queue th_running length] in Hw. lia.
Qed.

Lemma work_exit : forall t h c m q e l, tget t l = Some h -> th_client h = Some c -> th_queue h = m :: q -> th_running h = true ->
  work (tset t (mkThr (Some c) q false e) l) + 1 = work l.
Proof.
  intros t h c m q e l Ht Hc Hq Hr. pose proof (work_tset_some t h (mkThr (Some c) q false e) l Ht) as Hw.
  unfold thr_work in Hw. rewrite Hc, Hq, Hr in Hw. cbn [th_client th_queue th_running length] in Hw. lia.
Qed.

Lemma work_finish : forall t h c e l, tget t l = Some h -> th_client h = Some c -> th_queue h = [] -> th_running h = false ->
  work (tset t (mkThr None [] false e) l) + 2 = work l.
Proof.
  intros t h c e l Ht Hc Hq Hr. pose proof (work_tset_some t h (mkThr None [] false e) l Ht) as Hw.
  unfold thr_work in Hw. rewrite Hc, Hq, Hr in Hw. cbn [th_client th_queue th_running length] in Hw. lia.
Qed.

Lemma sent_shut : forall s c m s' r, s_shut s = true -> sent s c m s' r ->
  s_thr s' = s_thr s /\ s_sd s' = s_sd s /\ s_avail s' = s_avail s /\ s_active s' = s_active s.
Proof. intros s c m s' r Hsh H. destruct H; unfold dispatch; sst; rewrite ?Hsh; repeat split. Qed.

(* every transition taken while Shutdown() is in progress leaves the measure alone or lowers it *)
Lemma sd_measure_mono : forall s l s' ev, Inv s -> s_sd s <> SdNone -> step s l = Some (s', ev) -> sd_measure s' <= sd_measure s.
Proof.
  intros s l s' ev [I [U W]] Hne Hst. assert (Hsh : s_shut s = true) by now apply shut_true.
  unfold sd_measure, sd_weight. apply step_trans in Hst. destruct Hst; sst.
  - (* t_register_same *) lia.
  - (* t_register *) lia.
  - (* t_submit *) destruct (sent_shut s c m s' r Hsh Hs) as [E1 [E2 [E3 E4]]]. rewrite E1, E2, E3, E4. lia.
  - (* t_submit_unregistered *) lia.
  - (* t_enter *) pose proof (work_enter t h c m q (th_exited h) _ Ht Hc Hq Hr). lia.
  - (* t_exit *) pose proof (work_exit t h c m q (th_exited h) _ Ht Hc Hq Hr). lia.
  - (* t_finish *) unfold finished in Hf. sst. rewrite Hsh in Hf. injection Hf as <- <-. sst.
    pose proof (work_finish t h c (th_exited h) _ Ht Hc Hq Hr). lia.
  - (* t_unreg_begin *) unfold unreg_begin in Hb. destruct (outstanding s c); injection Hb as <- <-; sst; lia.
  - (* t_unreg_wake *) lia.
  - (* t_unreg_end *) unfold unreg_end; sst. lia.
  - (* t_shut_begin *) congruence.
  - (* t_shut_swap_avail *) pose proof (i_sd_tabs _ I) as Htab. destruct Hsd as [E|E]; rewrite E in *.
    + destruct (negb (is_nil (s_avail s)) || negb (is_nil (s_active s))); lia.
    + destruct Htab as [-> ->]. cbn. lia.
  - (* t_shut_swap_active *) rewrite Hsd. cbn [length]. destruct (nz || negb (is_nil (s_active s))); lia.
  - (* t_shut_join *) rewrite (join_work s t Hid). destruct Hsd as [[nz [E ->]]|[nz [E ->]]]; rewrite E; cbn [length]; lia.
  - (* t_shut_end *) rewrite shut_end_eq in He. injection He as <- <-. sst. lia.
  - (* t_submit_stale *) destruct (sent_shut s c m s' r Hsh Hs) as [E1 [E2 [E3 E4]]]. rewrite E1, E2, E3, E4, Hsd. lia.
Qed.

(* ... and while Shutdown() is in progress some transition that lowers it is enabled: Shutdown()'s own next step, or
   a step of the pool thread it is joining (which no other party can disable).  So Shutdown() returns after at most
   [sd_measure s] such steps: it cannot deadlock. *)
Lemma sd_measure_progress : forall s, Inv s -> s_sd s <> SdNone -> s_sd s <> SdDone ->
  exists l s' ev, step s l = Some (s', ev) /\ sd_measure s' < sd_measure s.
Proof.
  intros s [I [U W]] Hne Hnd. assert (Hsh : s_shut s = true) by now apply shut_true.
  pose proof (i_sd_tabs _ I) as Htab.
  assert (Hbusy : forall t, thr_idle (thr_of s t) = false ->
                            exists l s' ev, step s l = Some (s', ev) /\ work (s_thr s') < work (s_thr s) /\
                                            s_sd s' = s_sd s /\ s_avail s' = s_avail s /\ s_active s' = s_active s).
  { intros t Hid. unfold thr_of in Hid. destruct (tget t (s_thr s)) as [h|] eqn:Ht; [|discriminate].
    destruct (i_thr_wf _ I t h Ht) as [W1 [W2 _]].
    destruct (th_client h) as [c|] eqn:Hc.
    2:{ destruct (W2 eq_refl) as [Hq Hr]. unfold thr_idle in Hid. rewrite Hc, Hq, Hr in Hid. discriminate. }
    destruct (th_queue h) as [|m q] eqn:Hq; destruct (th_running h) eqn:Hr.
    - destruct (W1 eq_refl) as [Hx _]. congruence.
    - exists (LFinish t). cbn [step]. rewrite Ht, Hc, Hq, Hr. unfold finished. sst. rewrite Hsh.
      do 2 eexists. split; [reflexivity|]. sst.
      pose proof (work_finish t h c (th_exited h) _ Ht Hc Hq Hr). repeat split; auto. lia.
    - exists (LExit t). cbn [step]. rewrite Ht, Hc, Hq, Hr. do 2 eexists. split; [reflexivity|]. sst.
      pose proof (work_exit t h c m q (th_exited h) _ Ht Hc Hq Hr). repeat split; auto. lia.
    - exists (LEnter t). cbn [step]. rewrite Ht, Hc, Hq, Hr. do 2 eexists. split; [reflexivity|]. sst.
      pose proof (work_enter t h c m q (th_exited h) _ Ht Hc Hq Hr). repeat split; auto. lia. }
  unfold sd_measure, sd_weight.
  destruct (s_sd s) as [| |[|t r] nz|[|t r] nz|] eqn:Hsd; try congruence.
  - exists LShutSwap. cbn [step]. rewrite Hsd. do 2 eexists. split; [reflexivity|]. sst.
    destruct (negb (is_nil (s_avail s)) || negb (is_nil (s_active s))); lia.
  - exists LShutSwap. cbn [step]. rewrite Hsd. do 2 eexists. split; [reflexivity|]. sst. cbn [length].
    destruct (nz || negb (is_nil (s_active s))); lia.
  - destruct (thr_idle (thr_of s t)) eqn:Hid.
    + exists LShutJoin. cbn [step]. rewrite Hsd. cbv zeta. rewrite Hid. do 2 eexists. split; [reflexivity|]. sst.
      rewrite (join_work s t Hid). cbn [length]. lia.
    + destruct (Hbusy t Hid) as [l [s' [ev [H1 [H2 [H3 [H4 H5]]]]]]]. exists l, s', ev. split; auto.
      rewrite H3, H5. lia.
  - destruct nz.
    + exists LShutSwap. cbn [step]. rewrite Hsd. do 2 eexists. split; [reflexivity|]. sst.
      destruct Htab as [-> ->]. cbn. lia.
    + exists LShutEnd. cbn [step]. rewrite Hsd, shut_end_eq. do 2 eexists. split; [reflexivity|]. sst. lia.
  - destruct (thr_idle (thr_of s t)) eqn:Hid.
    + exists LShutJoin. cbn [step]. rewrite Hsd. cbv zeta. rewrite Hid. do 2 eexists. split; [reflexivity|]. sst.
      rewrite (join_work s t Hid). cbn [length]. lia.
    + destruct (Hbusy t Hid) as [l [s' [ev [H1 [H2 [H3 [H4 H5]]]]]]]. exists l, s', ev. split; auto.
      rewrite H3. lia.
Qed.

Theorem shutdown_no_deadlock : forall n ls s tr, run (init n) ls = Some (s, tr) -> s_sd s <> SdNone -> s_sd s <> SdDone ->
  (exists l s' ev, step s l = Some (s', ev) /\ sd_measure s' < sd_measure s) /\
  (forall l s' ev, step s l = Some (s', ev) -> sd_measure s' <= sd_measure s).
Proof.
  intros n ls s tr H Hne Hnd. apply run_reach in H. pose proof (reach_inv _ _ _ H) as HI. split.
  - now apply sd_measure_progress.
  - intros l s' ev Hst. eapply sd_measure_mono; eauto.
Qed.

(* ---------------------------------------------------------------- parallelism up to the thread limit *)

(* Until Shutdown() begins the pool threads that work for a client are exactly the keys of _activeThreads, a
   duplicate-free table of at most _maxThreadCount entries: at most that many handlers run at once. *)
Theorem pool_parallel_bound : forall n ls s tr, run (init n) ls = Some (s, tr) -> s_shut s = false ->
  NoDup (s_active s) /\ length (s_active s) <= s_max s /\
  (forall t h c, tget t (s_thr s) = Some h -> th_client h = Some c -> In t (s_active s)) /\
  (forall t, In t (s_active s) -> exists h c, tget t (s_thr s) = Some h /\ th_client h = Some c).
Proof.
  intros n ls s tr H Hsh. apply run_reach in H. destruct (reach_inv _ _ _ H) as [I [U W]].
  split; [apply (i_nd_active _ I)|]. split; [pose proof (i_count _ I); lia|]. split; [|apply (i_active_busy _ I Hsh)].
  intros t h c Ht Hc. destruct (fin_facts s t h c I Hsh Ht Hc) as [_ [_ [Hm _]]]. now apply lmem_In.
Qed.
