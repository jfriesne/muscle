(* C19 -- every transition of the ThreadPool LTS preserves the state invariants SInv, UInv, WC and keeps the
   assertion flag down. *)
From Coq Require Import List Arith Bool Lia.
From Muscle Require Import Conc.TPool Conc.TPoolLemmas Conc.TPoolInv.
Import ListNotations.

(* ---------------------------------------------------------------- the transitions, one case per outcome of a critical section *)

(* SendMessageToThreadPool() *)
Inductive sent (s : st) (c : client) (m : msg) : st -> sres -> Prop :=
| sent_defer (Hr : tget c (s_reg s) = Some true) : sent s c m (set_defer s (tappend c m (s_defer s))) SendOk
| sent_queue (Hr : tget c (s_reg s) = Some false) (Hl : (length (qof (tappend c m (s_pend s)) c) =? 1) = false) :
    sent s c m (set_pend s (tappend c m (s_pend s))) SendOk
| sent_dispatch (Hr : tget c (s_reg s) = Some false) : sent s c m (dispatch (set_pend s (tappend c m (s_pend s)))) SendOk
| sent_bad (Hr : tget c (s_reg s) = None) : sent s c m s SendBadArgument.

Lemma pool_send_sent : forall s c m s' r, pool_send s c m = (s', r) -> sent s c m s' r.
Proof.
  intros s c m s' r H. unfold pool_send in H. destruct (tget c (s_reg s)) as [[|]|] eqn:Hr.
  - injection H as <- <-. now constructor.
  - cbv zeta in H. sst. destruct (_ =? 1) eqn:Hl in H; injection H as <- <-; now constructor.
  - injection H as <- <-. now constructor.
Qed.

Inductive trans (s : st) : label -> st -> list event -> Prop :=
| t_register_same c (Hu : in_unreg s c = false) (Hcl : lmem c (s_cl s) = true) : trans s (LRegister c) s []
| t_register c (Hu : in_unreg s c = false) (Hcl : lmem c (s_cl s) = false) :
    trans s (LRegister c) (set_cl (set_reg s (tset c false (s_reg s))) (s_cl s ++ [c])) []
| t_submit c m s' r (Hu : in_unreg s c = false) (Hcl : lmem c (s_cl s) = true) (Hs : sent s c m s' r) :
    trans s (LSubmit c m) s' [ESubmit c m r]
| t_submit_unregistered c m (Hu : in_unreg s c = false) (Hcl : lmem c (s_cl s) = false) :
    trans s (LSubmit c m) s [ESubmit c m SendBadObject]
| t_enter t h c m q (Ht : tget t (s_thr s) = Some h) (Hc : th_client h = Some c) (Hq : th_queue h = m :: q)
    (Hr : th_running h = false) :
    trans s (LEnter t) (upd_thr s t (mkThr (Some c) (m :: q) true (th_exited h))) [EEnter c m t (length q)]
| t_exit t h c m q (Ht : tget t (s_thr s) = Some h) (Hc : th_client h = Some c) (Hq : th_queue h = m :: q)
    (Hr : th_running h = true) :
    trans s (LExit t) (upd_thr s t (mkThr (Some c) q false (th_exited h))) [EExit c m t]
| t_finish t h c s' ev (Ht : tget t (s_thr s) = Some h) (Hc : th_client h = Some c) (Hq : th_queue h = [])
    (Hr : th_running h = false) (Hf : finished (upd_thr s t (mkThr None [] false (th_exited h))) t c = (s', ev)) :
    trans s (LFinish t) s' ev
| t_unreg_begin c s' ev (Hu : in_unreg s c = false) (Hcl : lmem c (s_cl s) || sd_done (s_sd s) = true)
    (Hb : unreg_begin s c = (s', ev)) :
    trans s (LUnregBegin c) s' ev
| t_unreg_wake c (Hu : tget c (s_unreg s) = Some (UWaiting true)) :
    trans s (LUnregWake c) (set_unreg s (tset c UFinal (s_unreg s))) []
| t_unreg_end c (Hu : tget c (s_unreg s) = Some UFinal) : trans s (LUnregEnd c) (unreg_end s c) [EUnregReturn c]
| t_shut_begin (Hsd : s_sd s = SdNone) : trans s LShutBegin (set_sd (set_shut s true) SdSwapAvail) []
| t_shut_swap_avail (Hsd : s_sd s = SdSwapAvail \/ s_sd s = SdJoinActive [] true) :
    trans s LShutSwap (set_sd (set_avail s []) (SdJoinAvail (s_avail s) (negb (is_nil (s_avail s))))) []
| t_shut_swap_active nz (Hsd : s_sd s = SdJoinAvail [] nz) :
    trans s LShutSwap (set_sd (set_active s []) (SdJoinActive (s_active s) (nz || negb (is_nil (s_active s))))) []
| t_shut_join t r sd'
    (Hsd : (exists nz, s_sd s = SdJoinAvail (t :: r) nz /\ sd' = SdJoinAvail r nz) \/
           (exists nz, s_sd s = SdJoinActive (t :: r) nz /\ sd' = SdJoinActive r nz))
    (Hid : thr_idle (thr_of s t) = true) :
    trans s LShutJoin (set_sd (upd_thr s t (mkThr None [] false true)) sd') []
| t_shut_end s' ev (Hsd : s_sd s = SdJoinActive [] false) (He : shut_end s = (s', ev)) : trans s LShutEnd s' ev
| t_submit_stale c m s' r (Hu : in_unreg s c = false) (Hcl : lmem c (s_cl s) = false) (Hsd : s_sd s = SdDone)
    (Hs : sent s c m s' r) :
    trans s (LSubmitStale c m) s' [ESubmit c m r].

Lemma step_trans : forall s l s' ev, step s l = Some (s', ev) -> trans s l s' ev.
Proof.
  intros s l s' ev H. destruct l as [c|c m|t|t|t|c|c|c| | | | |c m]; cbn [step] in H.
  (* LEnter, LExit, LFinish: the guards on the thread's record; each label goes on with the one combination it allows *)
  3-5: destruct (tget t (s_thr s)) as [h|] eqn:Ht; [|discriminate]; destruct (th_client h) as [c|] eqn:Hc; [|discriminate];
    destruct (th_queue h) as [|m q] eqn:Hq; destruct (th_running h) eqn:Hr; try discriminate.
  - destruct (in_unreg s c) eqn:Hu; [discriminate|]. destruct (lmem c (s_cl s)) eqn:Hc; injection H as <- <-; now constructor.
  - destruct (in_unreg s c) eqn:Hu; [discriminate|]. destruct (lmem c (s_cl s)) eqn:Hc.
    + destruct (pool_send s c m) as [s1 r] eqn:Hs. injection H as <- <-. constructor; auto using pool_send_sent.
    + injection H as <- <-. now constructor.
  - injection H as <- <-. eapply t_enter; eauto.
  - injection H as <- <-. eapply t_exit; eauto.
  - destruct (finished _ t c) as [s1 e1] eqn:Hf. injection H as <- <-. eapply t_finish; eauto.
  - destruct (in_unreg s c) eqn:Hu; [discriminate|]. destruct (lmem c (s_cl s) || sd_done (s_sd s)) eqn:Hc; [|discriminate].
    destruct (unreg_begin s c) as [s1 e1] eqn:Hb. injection H as <- <-. now constructor.
  - destruct (tget c (s_unreg s)) as [[[|]|]|] eqn:Hu; try discriminate. injection H as <- <-. now constructor.
  - destruct (tget c (s_unreg s)) as [[|]|] eqn:Hu; try discriminate. injection H as <- <-. now constructor.
  - destruct (s_sd s) eqn:Hsd; try discriminate. injection H as <- <-. now constructor.
  - destruct (s_sd s) as [| |[|t r] nz|[|t r] [|]|] eqn:Hsd; try discriminate; injection H as <- <-;
      [apply t_shut_swap_avail|eapply t_shut_swap_active|apply t_shut_swap_avail]; eauto.
  - destruct (s_sd s) as [| |[|t r] nz|[|t r] nz|] eqn:Hsd; try discriminate; cbv zeta in H;
      (destruct (thr_idle (thr_of s t)) eqn:Hid; [|discriminate]); injection H as <- <-; eapply t_shut_join; eauto.
  - destruct (s_sd s) as [| | |[|t r] [|]|] eqn:Hsd; try discriminate.
    destruct (shut_end s) as [s1 e1] eqn:He. injection H as <- <-. now constructor.
  - destruct (in_unreg s c) eqn:Hu; [discriminate|]. destruct (lmem c (s_cl s)) eqn:Hc; [discriminate|].
    destruct (s_sd s) eqn:Hsd; try discriminate.
    destruct (pool_send s c m) as [s1 r] eqn:Hs. injection H as <- <-. constructor; auto using pool_send_sent.
Qed.

Definition Inv (s : st) : Prop := SInv s /\ UInv s /\ WC s.

(* ---------------------------------------------------------------- a busy thread's own steps *)

(* the thread keeps its client (handler entry and return), or drops it while Shutdown() is in progress *)
Lemma upd_thr_inv : forall s t h h',
  SInv s -> tget t (s_thr s) = Some h -> th_client h <> None ->
  th_client h' = th_client h \/ (h' = mkThr None [] false (th_exited h) /\ s_shut s = true) ->
  th_exited h' = th_exited h -> (th_running h' = true -> th_queue h' <> []) ->
  SInv (upd_thr s t h').
Proof.
  intros s t h h' I Ht Hcn Hc He Hrq. dI I. unfold upd_thr.
  assert (Hcl : forall c, th_client h' = Some c -> th_client h = Some c).
  { intros c E. destruct Hc as [Hc|[-> _]]; [congruence|discriminate]. }
  assert (Hrun : s_shut s = false -> th_client h' = th_client h) by (destruct Hc as [Hc|[_ Hc]]; [auto|congruence]).
  assert (Hwf : thr_wf h').
  { destruct (i_thr_wf0 t h Ht) as [_ [_ W3]]. destruct Hc as [Hc|[-> _]]; [|apply thr_wf_exited].
    unfold thr_wf. rewrite Hc, He. split; [auto|split; intros E; [congruence|]]. apply W3 in E. congruence. }
  constructor; sst; auto.
  - now apply tkeys_tset_nodup.
  - intros t' x. rewrite tget_tset. destruct (Nat.eqb_spec t' t) as [->|]; [intros _; eauto|apply i_fresh_thr0].
  - intros t' x c. rewrite tget_tset. destruct (Nat.eqb_spec t' t) as [->|]; [|apply i_thr_reg0].
    intros E; injection E as <-. eauto.
  - intros t1 t2 h1 h2 c. rewrite !tget_tset.
    destruct (Nat.eqb_spec t1 t) as [->|]; destruct (Nat.eqb_spec t2 t) as [->|]; auto.
    + intros E; injection E as <-. eauto.
    + intros Hg E; injection E as <-. eauto.
    + apply i_thr_uniq0.
  - intros Hsh c Hr. destruct (i_reg_thr0 Hsh c Hr) as [t' [x [H1 H2]]].
    destruct (Nat.eq_dec t' t) as [->|Hn].
    + exists t, h'. rewrite tget_tset_same. split; auto. rewrite Hrun by auto. congruence.
    + exists t', x. now rewrite tget_tset_other.
  - intros t' Ha. destruct (i_avail_idle0 t' Ha) as [x [H1 [H2 H3]]]. exists x. split; auto.
    rewrite tget_tset_other; auto. intros ->. apply thr_idle_spec in H2. destruct H2 as [H2 _]. congruence.
  - intros Hsh t' Ha. destruct (i_active_busy0 Hsh t' Ha) as [x [c [H1 H2]]].
    destruct (Nat.eq_dec t' t) as [->|Hn].
    + exists h', c. rewrite tget_tset_same. split; auto. rewrite Hrun by auto. congruence.
    + exists x, c. now rewrite tget_tset_other.
  - intros t' x. rewrite tget_tset. destruct (Nat.eqb_spec t' t) as [->|]; [intros E; now injection E as <-|apply i_thr_wf0].
  - intros t' x. rewrite tget_tset. destruct (Nat.eqb_spec t' t) as [->|]; [|apply i_place0].
    intros E; injection E as <-. rewrite He. eauto.
Qed.

Lemma upd_thr_uinv : forall s t h', UInv s -> UInv (upd_thr s t h').
Proof. intros s t h' [U1 U2 U3]. constructor; auto. Qed.

(* ---------------------------------------------------------------- RegisterClient *)

Lemma register_inv : forall s c,
  SInv s -> UInv s -> WC s -> in_unreg s c = false -> lmem c (s_cl s) = false ->
  let s' := set_cl (set_reg s (tset c false (s_reg s))) (s_cl s ++ [c]) in Inv s'.
Proof.
  intros s c I U W Hu Hcl s'. dI I. apply lmem_false in Hcl.
  assert (Hrc : tget c (s_reg s) = None) by now apply i_reg_cl0.
  assert (Hother : forall c', tget c' (s_reg s) <> None -> tget c' (tset c false (s_reg s)) = tget c' (s_reg s)).
  { intros c' Hn. apply tget_tset_other. intros ->. congruence. }
  split; [|split].
  - unfold s'. constructor; sst; auto.
    + intros c' q Hg. destruct (i_pend_ok0 c' q Hg) as [H1 H2]. split; auto. rewrite Hother; congruence.
    + intros c' q Hg Hq. rewrite Hother; [eauto|]. erewrite i_defer_ok0; eauto. discriminate.
    + intros t h c' Ht Hc. rewrite Hother; [eauto|]. erewrite i_thr_reg0; eauto. discriminate.
    + intros Hsh c'. rewrite tget_tset. destruct (Nat.eqb_spec c' c); [discriminate|]. now apply i_reg_thr0.
    + intros c' Hn. rewrite In_app_single in Hn. rewrite tget_tset_other; [apply i_reg_cl0|]; tauto.
  - destruct U as [U1 U2 U3]. unfold in_unreg in Hu.
    assert (Ho : forall c', tget c' (s_unreg s) <> None -> outstanding s' c' = outstanding s c').
    { intros c' Hn. apply outstanding_eq; unfold s'; sst; auto. apply tget_tset_other. intros ->.
      destruct (tget c (s_unreg s)); [discriminate|congruence]. }
    constructor; unfold s'; sst; auto.
    + intros c' Hg. fold s'. rewrite Ho; [auto|congruence].
    + intros c' u Hg Hn. fold s'. rewrite Ho; [eauto|congruence].
  - exact W.
Qed.

(* ---------------------------------------------------------------- SendMessageToThreadPool *)

Lemma send_pend_inv : forall s c m, SInv s -> tget c (s_reg s) = Some false -> SInv (set_pend s (tappend c m (s_pend s))).
Proof.
  intros s c m I Hr. dI I. constructor; sst; auto.
  - unfold tappend. now apply tkeys_tset_nodup.
  - intros c' q. unfold tappend. rewrite tget_tset. destruct (Nat.eqb_spec c' c) as [->|]; [|apply i_pend_ok0].
    intros E; injection E as <-. split; auto. destruct (qof (s_pend s) c); discriminate.
Qed.

Lemma send_inv : forall s c m s' r,
  SInv s -> UInv s -> WC s -> in_unreg s c = false -> sent s c m s' r -> Inv s'.
Proof.
  intros s c m s' r I U W Hu Hs. unfold in_unreg in Hu.
  assert (Hnu : tget c (s_unreg s) = None) by (destruct (tget c (s_unreg s)); [discriminate|auto]).
  (* c is not unregistering, so a change to c's queues alone is invisible to UInv *)
  assert (HU : forall s1, s_reg s1 = s_reg s -> s_wait s1 = s_wait s -> s_unreg s1 = s_unreg s ->
                          (forall c', c' <> c -> tget c' (s_pend s1) = tget c' (s_pend s) /\ tget c' (s_defer s1) = tget c' (s_defer s)) ->
                          UInv s1).
  { intros s1 E1 E2 E3 Hoth. destruct U as [U1 U2 U3].
    assert (Ho : forall c', tget c' (s_unreg s) <> None -> outstanding s1 c' = outstanding s c').
    { intros c' Hn. destruct (Hoth c') as [H1 H2]; [congruence|]. apply outstanding_eq; congruence. }
    constructor; rewrite ?E2, ?E3; auto.
    - intros c' Hg. rewrite Ho; [auto|congruence].
    - intros c' u Hg Hn. rewrite Ho; [eauto|congruence]. }
  assert (U1 : UInv (set_pend s (tappend c m (s_pend s)))).
  { apply HU; auto. intros c' Hn; sst. unfold tappend. now rewrite tget_tset_other. }
  destruct Hs.
  - (* sent_defer *) split; [|split; [|exact W]].
    + dI I. constructor; sst; auto.
      intros c' q. unfold tappend. rewrite tget_tset. destruct (Nat.eqb_spec c' c) as [->|]; [auto|apply i_defer_ok0].
    + apply HU; auto. intros c' Hn; sst. unfold tappend. now rewrite tget_tset_other.
  - (* sent_queue *) split; [now apply send_pend_inv|split; [exact U1|]].
    intros Hsh Hne. apply W; auto. unfold tappend in Hl. rewrite qof_tset, Nat.eqb_refl in Hl.
    intros Hp. unfold qof in Hl. rewrite Hp in Hl. discriminate.
  - (* sent_dispatch *) pose proof (send_pend_inv s c m I Hr) as I1. destruct (dispatch_inv _ I1) as [I2 W2].
    split; [auto|split; [now apply dispatch_uinv|auto]].
  - (* sent_bad *) exact (conj I (conj U W)).
Qed.

(* ---------------------------------------------------------------- ThreadFinishedProcessingClientMessages *)

(* SInv does not look at _waitingForCompletion, the unregistering clients or the assertion flag *)
Lemma SInv_frame : forall s s',
  SInv s ->
  s_max s' = s_max s -> s_shut s' = s_shut s -> s_ctr s' = s_ctr s -> s_avail s' = s_avail s -> s_active s' = s_active s ->
  s_reg s' = s_reg s -> s_pend s' = s_pend s -> s_defer s' = s_defer s -> s_thr s' = s_thr s -> s_cl s' = s_cl s ->
  s_sd s' = s_sd s -> SInv s'.
Proof.
  intros s s' I E1 E2 E3 E4 E5 E6 E7 E8 E9 E10 E11. destruct I.
  constructor; rewrite ?E1, ?E2, ?E3, ?E4, ?E5, ?E6, ?E7, ?E8, ?E9, ?E10, ?E11; auto.
Qed.

(* the state after part (1) of ThreadFinishedProcessingClientMessages, described by what it must satisfy *)
Lemma fin_shape_inv : forall s t h c s2,
  SInv s -> s_shut s = false ->
  tget t (s_thr s) = Some h -> th_client h = Some c -> th_queue h = [] -> th_running h = false ->
  s_max s2 = s_max s -> s_shut s2 = s_shut s -> s_ctr s2 = s_ctr s -> s_cl s2 = s_cl s -> s_sd s2 = s_sd s ->
  s_thr s2 = tset t (mkThr None [] false (th_exited h)) (s_thr s) ->
  s_reg s2 = tset c false (s_reg s) ->
  s_avail s2 = s_avail s ++ [t] -> s_active s2 = lrem t (s_active s) ->
  NoDup (tkeys (s_pend s2)) ->
  (forall c', c' <> c -> tget c' (s_pend s2) = tget c' (s_pend s) /\ tget c' (s_defer s2) = tget c' (s_defer s)) ->
  (forall q, tget c (s_pend s2) = Some q -> q <> []) ->
  (forall q, tget c (s_defer s2) = Some q -> q = []) ->
  SInv s2.
Proof.
  intros s t h c s2 I Hsh Ht Hc Hq Hr E1 E2 E3 E4 E5 Ethr Ereg Eav Eac Hnd Hoth Hpc Hdc. dI I.
  assert (Hregc : tget c (s_reg s) = Some true) by eauto.
  destruct (i_thr_wf0 t h Ht) as [_ [_ Hwf3]].
  assert (Hex : th_exited h = false).
  { destruct (th_exited h) eqn:E; auto. rewrite Hwf3 in Hc; [discriminate|auto]. }
  assert (Hsd : s_sd s = SdNone) by now apply i_shut_sd0.
  assert (Hact : In t (s_active s)).
  { destruct (i_place0 t h Ht) as [H|[H|[H|H]]]; auto; try congruence.
    - destruct (i_avail_idle0 t H) as [x [H1 [H2 _]]]. apply thr_idle_spec in H2. destruct H2 as [H2 _]. congruence.
    - rewrite Hsd in H. destruct H. }
  assert (Hnav : ~ In t (s_avail s)) by (intros H; eapply i_disj0; eauto).
  assert (Huniq : forall t' h' , tget t' (s_thr s) = Some h' -> th_client h' = Some c -> t' = t) by (intros; eapply i_thr_uniq0; eauto).
  rewrite Hex in Ethr.
  constructor; rewrite ?E1, ?E2, ?E3, ?E4, ?E5, ?Ethr, ?Ereg, ?Eav, ?Eac; auto.
  - now apply tkeys_tset_nodup.
  - now apply NoDup_app_single.
  - now apply lrem_nodup.
  - intros t'. rewrite In_app_single, lrem_In. intros [Ha| ->] [Hn Hb]; [eapply i_disj0; eauto|congruence].
  - intros t' x. rewrite tget_tset. destruct (Nat.eqb_spec t' t) as [->|]; [intros _; eauto|apply i_fresh_thr0].
  - intros t'. rewrite In_app_single, lrem_In. intros H. apply i_fresh_tab0.
    destruct H as [[H| ->]|[[_ H]|H]]; tauto.
  - intros c' q Hg. destruct (Nat.eq_dec c' c) as [->|Hn].
    + split; [eauto|apply tget_tset_same].
    + destruct (Hoth c' Hn) as [H1 _]. rewrite H1 in Hg. destruct (i_pend_ok0 c' q Hg). split; auto. now rewrite tget_tset_other.
  - intros c' q Hg Hne. destruct (Nat.eq_dec c' c) as [->|Hn].
    + apply Hdc in Hg. congruence.
    + destruct (Hoth c' Hn) as [_ H2]. rewrite H2 in Hg. rewrite tget_tset_other; eauto.
  - intros t' x c'. rewrite tget_tset. destruct (Nat.eqb_spec t' t) as [->|Hn]; [intros E; injection E as <-; discriminate|].
    intros Hg Hcl. rewrite tget_tset_other; [eauto|]. intros ->. apply Hn. eauto.
  - intros t1 t2 h1 h2 c'. rewrite !tget_tset.
    destruct (Nat.eqb_spec t1 t); [intros E; injection E as <-; discriminate|].
    destruct (Nat.eqb_spec t2 t); [intros _ E; injection E as <-; discriminate|]. apply i_thr_uniq0.
  - intros _ c'. rewrite tget_tset. destruct (Nat.eqb_spec c' c) as [->|Hn]; [discriminate|].
    intros Hg. destruct (i_reg_thr0 Hsh c' Hg) as [t' [x [H1 H2]]]. exists t', x. split; auto.
    rewrite tget_tset_other; auto. intros ->. congruence.
  - intros t'. rewrite In_app_single. intros [Ha| ->].
    + destruct (i_avail_idle0 t' Ha) as [x [H1 H2]]. exists x. split; auto. rewrite tget_tset_other; auto. intros ->. auto.
    + eexists. rewrite tget_tset_same. split; [reflexivity|]. split; reflexivity.
  - intros _ t'. rewrite lrem_In. intros [Hn Ha]. destruct (i_active_busy0 Hsh t' Ha) as [x [c' [H1 H2]]].
    exists x, c'. now rewrite tget_tset_other.
  - intros t' x. rewrite tget_tset. destruct (Nat.eqb_spec t' t) as [->|]; [|apply i_thr_wf0].
    intros E; injection E as <-. unfold thr_wf; cbn. repeat split; auto; discriminate.
  - intros t' x. rewrite tget_tset. destruct (Nat.eqb_spec t' t) as [->|Hn].
    + intros _. right. left. rewrite In_app_single. tauto.
    + intros Hg. apply i_place0 in Hg. rewrite In_app_single, lrem_In. tauto.
  - rewrite app_length. cbn [length]. pose proof (lrem_length t (s_active s) i_nd_active0 Hact). lia.
  - intros c' Hn. rewrite tget_tset. destruct (Nat.eqb_spec c' c) as [->|]; auto.
    rewrite (i_reg_cl0 c Hn) in Hregc. discriminate.
  - now rewrite Hsd.
Qed.

Lemma fin_facts : forall s t h c,
  SInv s -> s_shut s = false -> tget t (s_thr s) = Some h -> th_client h = Some c ->
  tget c (s_reg s) = Some true /\ tget c (s_pend s) = None /\ lmem t (s_active s) = true /\ th_exited h = false.
Proof.
  intros s t h c I Hsh Ht Hc. dI I.
  assert (Hregc : tget c (s_reg s) = Some true) by eauto.
  split; auto. split.
  { destruct (tget c (s_pend s)) as [q|] eqn:E; auto. destruct (i_pend_ok0 c q E). congruence. }
  destruct (i_thr_wf0 t h Ht) as [_ [_ Hwf3]].
  assert (Hex : th_exited h = false).
  { destruct (th_exited h) eqn:E; auto. rewrite Hwf3 in Hc; [discriminate|auto]. }
  split; auto. apply lmem_In.
  assert (Hsd : s_sd s = SdNone) by now apply i_shut_sd0.
  destruct (i_place0 t h Ht) as [H|[H|[H|H]]]; auto; try congruence.
  - destruct (i_avail_idle0 t H) as [x [H1 [H2 _]]]. apply thr_idle_spec in H2. destruct H2 as [H2 _]. congruence.
  - rewrite Hsd in H. destruct H.
Qed.

Lemma fin_core_inv : forall s t h c,
  SInv s -> s_shut s = false ->
  tget t (s_thr s) = Some h -> th_client h = Some c -> th_queue h = [] -> th_running h = false ->
  SInv (fin_core (upd_thr s t (mkThr None [] false (th_exited h))) t c).
Proof.
  intros s t h c I Hsh Ht Hc Hq Hr.
  destruct (fin_facts s t h c I Hsh Ht Hc) as [Hregc [Hpn [Hm Hex]]].
  eapply (fin_shape_inv s t h c); eauto; unfold fin_core; sst; rewrite Hregc; sst;
    destruct (tget c (s_defer s)) as [[|d0 dr]|] eqn:Hd; sst; rewrite ?Hm; sst; auto;
    try apply (i_nd_pend _ I); try (apply tkeys_tset_nodup; apply (i_nd_pend _ I)).
  all: try (intros c' Hn; split; auto; now rewrite tget_tset_other).
  all: try (intros q Hg; congruence).
  - intros q. rewrite tget_tset_same. intros E; injection E as <-. discriminate.
  - intros q. rewrite tget_tset_same. unfold qof. rewrite Hpn. intros E; now injection E as <-.
Qed.

Lemma fin_core_other : forall s t h c,
  SInv s -> s_shut s = false -> tget t (s_thr s) = Some h -> th_client h = Some c ->
  let s2 := fin_core (upd_thr s t (mkThr None [] false (th_exited h))) t c in
  s_wait s2 = s_wait s /\ s_unreg s2 = s_unreg s /\ s_shut s2 = s_shut s /\ s_sd s2 = s_sd s /\
  (forall c', c' <> c -> tget c' (s_reg s2) = tget c' (s_reg s) /\ tget c' (s_pend s2) = tget c' (s_pend s) /\
                         tget c' (s_defer s2) = tget c' (s_defer s)) /\
  handled s2 c = false /\ qof (s_pend s2) c = qof (s_defer s) c /\ qof (s_defer s2) c = [].
Proof.
  intros s t h c I Hsh Ht Hc.
  destruct (fin_facts s t h c I Hsh Ht Hc) as [Hregc [Hpn [Hm Hex]]].
  unfold fin_core, handled; sst; rewrite Hregc; sst;
    destruct (tget c (s_defer s)) as [[|d0 dr]|] eqn:Hd; sst; rewrite ?Hm; sst; repeat split; auto;
    try (intros; now rewrite ?tget_tset_other by auto); rewrite ?tget_tset_same; auto;
    unfold qof; rewrite ?tget_tset_same, ?Hpn, ?Hd; auto.
Qed.

Lemma finish_inv : forall s t h c s' ev,
  SInv s -> UInv s -> WC s ->
  tget t (s_thr s) = Some h -> th_client h = Some c -> th_queue h = [] -> th_running h = false ->
  finished (upd_thr s t (mkThr None [] false (th_exited h))) t c = (s', ev) ->
  Inv s'.
Proof.
  (* Under Shutdown() the thread only becomes idle.  Otherwise: s2 (after part 1, SInv by fin_core_inv) and
     s3 = dispatch s2 keep _waitingForCompletion and s_unreg, and keep [outstanding] for every client but c, which was
     outstanding in s (being handled); so UInv can only break at c, and the three outcomes of part 3 are: c still
     outstanding (nothing to show at c), c waiting and woken (its two entries change together), c not waiting. *)
  intros s t h c s' ev I U W Ht Hc Hq Hr Hf. unfold finished in Hf.
  change (s_shut (upd_thr s t (mkThr None [] false (th_exited h)))) with (s_shut s) in Hf.
  destruct (s_shut s) eqn:Hsh.
  - injection Hf as <- <-. split; [eapply upd_thr_inv; eauto; [congruence|discriminate]|].
    split; [now apply upd_thr_uinv|]. intros H. unfold upd_thr in H; sst. congruence.
  - pose proof (fin_core_inv s t h c I Hsh Ht Hc Hq Hr) as I2.
    destruct (fin_core_other s t h c I Hsh Ht Hc) as [Ew [Eu [Es [Esd [Hoth [Hh2 [Hp2 Hd2]]]]]]].
    set (s2 := fin_core (upd_thr s t (mkThr None [] false (th_exited h))) t c) in *.
    destruct (dispatch_inv s2 I2) as [I3 W3].
    destruct (dispatch_frame s2 I2) as [_ [_ [_ [F4 [_ [F6 _]]]]]]. rewrite Ew in F4. rewrite Eu in F6.
    set (s3 := dispatch s2) in *.
    destruct U as [U1 U2 U3].
    assert (Hreg : tget c (s_reg s) = Some true) by (eapply i_thr_reg; eauto).
    assert (Hoc : outstanding s c = true) by (unfold outstanding, handled; now rewrite Hreg).
    assert (Ho : forall c', c' <> c -> outstanding s3 c' = outstanding s c').
    { intros c' Hn. unfold s3. rewrite dispatch_outstanding by auto. destruct (Hoth c' Hn) as [H1 [H2 H3]].
      now apply outstanding_eq. }
    unfold fin_notify in Hf. destruct (outstanding s3 c) eqn:Ho3.
    + injection Hf as <- <-. split; [auto|split; [|auto]].
      constructor; rewrite ?F4, ?F6.
      * apply U1.
      * intros c' Hg. destruct (Nat.eq_dec c' c) as [->|Hn]; [auto|rewrite Ho; auto].
      * intros c' u Hg Hne. destruct (Nat.eq_dec c' c) as [->|Hn]; [|rewrite Ho; eauto].
        rewrite (U3 c u Hg Hne) in Hoc. discriminate.
    + destruct (lmem c (s_wait s3)) eqn:Hw; injection Hf as <- <-.
      * (* the client is woken: only its entries in _waitingForCompletion and s_unreg change *)
        rewrite F4 in Hw. apply lmem_In, U1 in Hw. rewrite notify_wake.
        split; [eapply SInv_frame; [exact I3|reflexivity..]|split; [|exact W3]].
        constructor; sst; rewrite ?F4, F6.
        -- intros c'. rewrite lrem_In. destruct (Nat.eq_dec c' c) as [->|Hn].
           ++ rewrite tget_wake, Hw, Nat.eqb_refl. split; [tauto|discriminate].
           ++ rewrite tget_wake_other, <- U1 by auto. tauto.
        -- intros c'. destruct (Nat.eq_dec c' c) as [->|Hn]; [rewrite tget_wake, Hw, Nat.eqb_refl; discriminate|].
           rewrite tget_wake_other by auto. intros Hg. change (outstanding s3 c' = true). rewrite Ho; auto.
        -- intros c' u. destruct (Nat.eq_dec c' c) as [->|Hn]; [intros _ _; exact Ho3|].
           rewrite tget_wake_other by auto. intros Hg Hne. change (outstanding s3 c' = false). rewrite Ho; eauto.
      * split; [auto|split; [|auto]].
        apply lmem_false in Hw. rewrite F4 in Hw.
        constructor; rewrite ?F4, ?F6.
        -- apply U1.
        -- intros c' Hg. destruct (Nat.eq_dec c' c) as [->|Hn]; [|rewrite Ho; auto]. exfalso. apply Hw. now apply U1.
        -- intros c' u Hg Hne. destruct (Nat.eq_dec c' c) as [->|Hn]; [auto|rewrite Ho; eauto].
Qed.

(* ---------------------------------------------------------------- UnregisterClient *)

Lemma unreg_begin_inv : forall s c s' ev,
  SInv s -> UInv s -> WC s -> in_unreg s c = false -> unreg_begin s c = (s', ev) -> Inv s'.
Proof.
  intros s c s' ev I [U1 U2 U3] W Hu Hb. unfold in_unreg in Hu.
  assert (Hnu : tget c (s_unreg s) = None) by (destruct (tget c (s_unreg s)); [discriminate|auto]).
  assert (Hnw : ~ In c (s_wait s)) by (rewrite U1; congruence).
  unfold unreg_begin in Hb. destruct (outstanding s c) eqn:Ho; injection Hb as <- <-.
  - split; [eapply SInv_frame; eauto|split; [|exact W]].
    constructor; sst.
    + intros c'. rewrite ladd_In, tget_tset. destruct (Nat.eqb_spec c' c) as [->|Hn]; [tauto|]. rewrite <- U1. tauto.
    + intros c'. rewrite tget_tset. destruct (Nat.eqb_spec c' c) as [->|Hn]; [intros _; exact Ho|apply U2].
    + intros c' u. rewrite tget_tset. destruct (Nat.eqb_spec c' c) as [->|Hn]; [congruence|apply U3].
  - split; [eapply SInv_frame; eauto|split; [|exact W]].
    constructor; sst.
    + intros c'. rewrite tget_tset. destruct (Nat.eqb_spec c' c) as [->|Hn]; [split; [tauto|discriminate]|apply U1].
    + intros c'. rewrite tget_tset. destruct (Nat.eqb_spec c' c) as [->|Hn]; [discriminate|apply U2].
    + intros c' u. rewrite tget_tset. destruct (Nat.eqb_spec c' c) as [->|Hn]; [intros _ _; exact Ho|apply U3].
Qed.

Lemma unreg_wake_inv : forall s c,
  SInv s -> UInv s -> WC s -> tget c (s_unreg s) = Some (UWaiting true) ->
  let s' := set_unreg s (tset c UFinal (s_unreg s)) in Inv s'.
Proof.
  intros s c I [U1 U2 U3] W Hu s'. split; [eapply SInv_frame; eauto|split; [|exact W]].
  constructor; unfold s'; sst.
  - intros c'. rewrite tget_tset. destruct (Nat.eqb_spec c' c) as [->|Hn]; [|apply U1].
    rewrite U1, Hu. split; discriminate.
  - intros c'. rewrite tget_tset. destruct (Nat.eqb_spec c' c) as [->|Hn]; [discriminate|apply U2].
  - intros c' u. rewrite tget_tset. destruct (Nat.eqb_spec c' c) as [->|Hn]; [|apply U3].
    intros _ _. apply (U3 c (UWaiting true)); auto. discriminate.
Qed.

Lemma not_outstanding : forall s c, SInv s -> outstanding s c = false ->
  handled s c = false /\ tget c (s_pend s) = None /\ qof (s_defer s) c = [].
Proof.
  intros s c I Ho. unfold outstanding in Ho. apply orb_false_iff in Ho. destruct Ho as [Ho H3].
  apply orb_false_iff in Ho. destruct Ho as [H1 H2].
  apply negb_false_iff, is_nil_true in H2. apply negb_false_iff, is_nil_true in H3.
  split; auto. split; auto.
  destruct (tget c (s_pend s)) as [q|] eqn:E; auto. destruct (i_pend_ok _ I c q E) as [Hq _].
  unfold qof in H2. rewrite E in H2. congruence.
Qed.

Lemma unreg_end_inv : forall s c,
  SInv s -> UInv s -> WC s -> tget c (s_unreg s) = Some UFinal ->
  Inv (unreg_end s c).
Proof.
  intros s c I [U1 U2 U3] W Hu. dI I.
  assert (Ho : outstanding s c = false) by (apply (U3 c UFinal); auto; discriminate).
  destruct (not_outstanding s c I Ho) as [Hh [Hpn Hdn]]. unfold handled in Hh.
  assert (Hnt : forall c', tget c' (s_reg s) = Some true -> c' <> c).
  { intros c' H ->. rewrite H in Hh. discriminate. }
  unfold unreg_end. split; [|split].
  - constructor; sst; auto.
    + now apply tkeys_tdel_nodup.
    + intros c' q. rewrite !tget_tdel. destruct (Nat.eqb_spec c' c); [discriminate|apply i_pend_ok0].
    + intros c' q. rewrite !tget_tdel. destruct (Nat.eqb_spec c' c); [discriminate|apply i_defer_ok0].
    + intros t h c' Ht Hc. rewrite tget_tdel_other; eauto.
    + intros Hsh c'. rewrite tget_tdel. destruct (Nat.eqb_spec c' c); [discriminate|now apply i_reg_thr0].
    + intros c'. rewrite lrem_In, tget_tdel. destruct (Nat.eqb_spec c' c) as [->|Hn]; auto; intros H; apply i_reg_cl0; tauto.
  - assert (Hoo : forall c', c' <> c -> outstanding (unreg_end s c) c' = outstanding s c').
    { intros c' Hn. apply outstanding_eq; unfold unreg_end; sst; now apply tget_tdel_other. }
    constructor; unfold unreg_end in *; sst.
    + intros c'. rewrite lrem_In, tget_tdel. destruct (Nat.eqb_spec c' c) as [->|Hn]; [split; [tauto|discriminate]|].
      rewrite <- U1. tauto.
    + intros c'. rewrite tget_tdel. destruct (Nat.eqb_spec c' c) as [->|Hn]; [discriminate|]. intros Hg. rewrite Hoo; auto.
    + intros c' u. rewrite tget_tdel. destruct (Nat.eqb_spec c' c) as [->|Hn]; [discriminate|]. intros Hg Hne. rewrite Hoo; eauto.
  - intros Hsh Hne. sst. apply W; auto. intros E. rewrite E in Hne. now apply Hne.
Qed.

(* ---------------------------------------------------------------- Shutdown *)

Lemma shut_true : forall s, SInv s -> s_sd s <> SdNone -> s_shut s = true.
Proof. intros s I H. destruct (s_shut s) eqn:E; auto. apply (i_shut_sd _ I) in E. congruence. Qed.

Lemma shut_begin_inv : forall s,
  SInv s -> UInv s -> s_sd s = SdNone ->
  let s' := set_sd (set_shut s true) SdSwapAvail in Inv s'.
Proof.
  intros s I [U1 U2 U3] Hsd s'. dI I. rewrite Hsd in *. split; [|split].
  - unfold s'. constructor; sst; auto; try (intros; discriminate).
    split; discriminate.
  - constructor; auto.
  - intros H. discriminate.
Qed.

Lemma shut_swap_avail_inv : forall s,
  SInv s -> UInv s -> (s_sd s = SdSwapAvail \/ s_sd s = SdJoinActive [] true) ->
  let s' := set_sd (set_avail s []) (SdJoinAvail (s_avail s) (negb (is_nil (s_avail s)))) in Inv s'.
Proof.
  intros s I [U1 U2 U3] Hsd s'. dI I.
  assert (Hsh : s_shut s = true) by (apply shut_true; auto; destruct Hsd as [H|H]; rewrite H; discriminate).
  assert (Hj : joinlist (s_sd s) = []) by (destruct Hsd as [H|H]; now rewrite H).
  rewrite Hj in *. split; [|split].
  - unfold s'. constructor; sst; auto; try (intros; congruence).
    + constructor.
    + intros t [[]|[H|H]]; apply i_fresh_tab0; tauto.
    + intros t [].
    + intros t h Ht. apply i_place0 in Ht. cbn in *. tauto.
    + cbn. lia.
    + rewrite Hsh. split; discriminate.
  - constructor; auto.
  - intros H. unfold s' in H; sst. congruence.
Qed.

Lemma shut_swap_active_inv : forall s nz,
  SInv s -> UInv s -> s_sd s = SdJoinAvail [] nz ->
  let s' := set_sd (set_active s []) (SdJoinActive (s_active s) (nz || negb (is_nil (s_active s)))) in Inv s'.
Proof.
  intros s nz I [U1 U2 U3] Hsd s'. dI I.
  assert (Hsh : s_shut s = true) by (apply shut_true; auto; rewrite Hsd; discriminate).
  rewrite Hsd in *. cbn [joinlist] in *. split; [|split].
  - unfold s'. constructor; sst; auto; try (intros; congruence).
    + intros t [H|[[]|H]]; apply i_fresh_tab0; tauto.
    + intros t h Ht. apply i_place0 in Ht. cbn in *. tauto.
    + rewrite i_sd_tabs0. cbn. lia.
    + rewrite Hsh. split; discriminate.
  - constructor; auto.
  - intros H. unfold s' in H; sst. congruence.
Qed.

Lemma shut_join_inv : forall s t r sd',
  SInv s -> UInv s ->
  ((exists nz, s_sd s = SdJoinAvail (t :: r) nz /\ sd' = SdJoinAvail r nz) \/
   (exists nz, s_sd s = SdJoinActive (t :: r) nz /\ sd' = SdJoinActive r nz)) ->
  let s' := set_sd (upd_thr s t (mkThr None [] false true)) sd' in Inv s'.
Proof.
  intros s t r sd' I [U1 U2 U3] Hsd s'. dI I.
  assert (Hne : s_sd s <> SdNone) by (destruct Hsd as [[nz [H _]]|[nz [H _]]]; rewrite H; discriminate).
  assert (Hsh : s_shut s = true) by now apply shut_true.
  assert (Hj : joinlist (s_sd s) = t :: r /\ joinlist sd' = r) by (destruct Hsd as [[nz [H ->]]|[nz [H ->]]]; now rewrite H).
  destruct Hj as [Hj Hj']. rewrite Hj in *.
  assert (Hav : s_avail s = []).
  { destruct Hsd as [[nz [H _]]|[nz [H _]]]; rewrite H in i_sd_tabs0; tauto. }
  split; [|split].
  - unfold s', upd_thr. constructor; sst; auto; try (intros; congruence).
    + now apply tkeys_tset_nodup.
    + intros t' x. rewrite tget_tset. destruct (Nat.eqb_spec t' t) as [->|]; [intros _; apply i_fresh_tab0; cbn; tauto|apply i_fresh_thr0].
    + rewrite Hj'. intros t' H. apply i_fresh_tab0. cbn. tauto.
    + intros t' x c. rewrite tget_tset. destruct (Nat.eqb_spec t' t) as [->|]; [intros E; injection E as <-; discriminate|apply i_thr_reg0].
    + intros t1 t2 h1 h2 c. rewrite !tget_tset.
      destruct (Nat.eqb_spec t1 t); [intros E; injection E as <-; discriminate|].
      destruct (Nat.eqb_spec t2 t); [intros _ E; injection E as <-; discriminate|]. apply i_thr_uniq0.
    + rewrite Hav. intros t' [].
    + intros t' x. rewrite tget_tset. destruct (Nat.eqb_spec t' t) as [->|]; [|apply i_thr_wf0].
      intros E; injection E as <-. unfold thr_wf; cbn. repeat split; auto; discriminate.
    + rewrite Hj'. intros t' x. rewrite tget_tset. destruct (Nat.eqb_spec t' t) as [->|Hn].
      * intros E; injection E as <-. cbn. tauto.
      * intros Hg. apply i_place0 in Hg. cbn in Hg. destruct Hg as [H|[H|[H|[H|H]]]]; try tauto. congruence.
    + rewrite Hsh. split; [discriminate|]. destruct Hsd as [[nz [_ ->]]|[nz [_ ->]]]; discriminate.
    + destruct Hsd as [[nz [H ->]]|[nz [H ->]]]; rewrite H in i_sd_tabs0; auto.
  - constructor; auto.
  - intros H. unfold s' in H; sst. congruence.
Qed.

Lemma shut_end_inv : forall s s' ev,
  SInv s -> UInv s -> s_sd s = SdJoinActive [] false -> shut_end s = (s', ev) -> Inv s'.
Proof.
  intros s s' ev I [U1 U2 U3] Hsd He. dI I. rewrite shut_end_eq in He. injection He as <- <-.
  assert (Hsh : s_shut s = true) by (apply shut_true; auto; rewrite Hsd; discriminate).
  rewrite Hsd in *. cbn [joinlist] in *. destruct i_sd_tabs0 as [Hav Hac]. rewrite Hav, Hac in *.
  assert (Hnc : forall t h, tget t (s_thr s) = Some h -> th_client h = None).
  { intros t h Ht. destruct (i_place0 t h Ht) as [H|[[]|[[]|[]]]]. destruct (i_thr_wf0 t h Ht) as [_ [_ H3]]. auto. }
  split; [|split].
  - constructor; sst; auto; try (intros; discriminate); try (intros; congruence); try (cbn; tauto); try constructor.
    + intros t h c Ht Hc. rewrite (Hnc t h Ht) in Hc. discriminate.
    + congruence.
    + discriminate.
  - (* everybody who was waiting has been notified *)
    assert (Hnw : forall c, tget c (fold_left wake (s_wait s) (s_unreg s)) <> Some (UWaiting false)).
    { intros c. rewrite tget_fold_wake. destruct (tget c (s_unreg s)) as [[b|]|] eqn:E; try discriminate.
      destruct b; [discriminate|]. apply U1 in E. apply lmem_In in E. rewrite E. discriminate. }
    constructor; sst.
    + intros c. split; [intros []|]. intros H. now apply Hnw in H.
    + intros c H. now apply Hnw in H.
    + reflexivity.
  - intros H. sst. congruence.
Qed.

(* ---------------------------------------------------------------- every transition *)

Lemma init_inv : forall n, Inv (init n).
Proof.
  intros n. unfold Inv, init. split; [|split].
  - constructor; sst; cbn; auto; try (intros; discriminate); try tauto; try constructor; try lia; try (intros; tauto).
  - constructor; sst; cbn; try (intros; discriminate). intros c; split; [tauto|discriminate].
  - intros _ H. now contradiction H.
Qed.

Theorem step_inv : forall s l s' ev, Inv s -> step s l = Some (s', ev) -> Inv s'.
Proof.
  intros s l s' ev [I [U W]] Hst. apply step_trans in Hst. destruct Hst.
  - (* t_register_same *) exact (conj I (conj U W)).
  - (* t_register *) now apply register_inv.
  - (* t_submit *) eapply send_inv; eauto.
  - (* t_submit_unregistered *) exact (conj I (conj U W)).
  - (* t_enter *) split; [|split; [now apply upd_thr_uinv|exact W]]. eapply upd_thr_inv; eauto; try congruence. discriminate.
  - (* t_exit *) split; [|split; [now apply upd_thr_uinv|exact W]]. eapply upd_thr_inv; eauto; try congruence. discriminate.
  - (* t_finish *) eapply finish_inv; eauto.
  - (* t_unreg_begin *) eapply unreg_begin_inv; eauto.
  - (* t_unreg_wake *) now apply unreg_wake_inv.
  - (* t_unreg_end *) now apply unreg_end_inv.
  - (* t_shut_begin *) now apply shut_begin_inv.
  - (* t_shut_swap_avail *) now apply shut_swap_avail_inv.
  - (* t_shut_swap_active *) eapply shut_swap_active_inv; eauto.
  - (* t_shut_join *) eapply shut_join_inv; eauto.
  - (* t_shut_end *) eapply shut_end_inv; eauto.
  - (* t_submit_stale *) eapply send_inv; eauto.
Qed.

Inductive reach (n : nat) : st -> list event -> Prop :=
| reach_init : reach n (init n) []
| reach_step : forall s tr l s' ev, reach n s tr -> step s l = Some (s', ev) -> reach n s' (tr ++ ev).

Theorem reach_inv : forall n s tr, reach n s tr -> Inv s.
Proof. intros n s tr H. induction H; [apply init_inv|eapply step_inv; eauto]. Qed.

(* ---------------------------------------------------------------- no MASSERT of ThreadPool.cpp fires *)

(* the last part of ThreadFinishedProcessingClientMessages changes only _waitingForCompletion and the client's WaitCondition *)
Lemma fin_notify_frame : forall s c s' ev, fin_notify s c = (s', ev) ->
  exists u w, s' = set_wait (set_unreg s u) w /\ (ev = [] \/ ev = [ENotify c]).
Proof.
  intros s c s' ev H. unfold fin_notify in H.
  assert (Hid : exists u w, s = set_wait (set_unreg s u) w /\ (@nil event = [] \/ [] = [ENotify c])).
  { exists (s_unreg s), (s_wait s). destruct s; auto. }
  destruct (outstanding s c); [injection H as <- <-; exact Hid|].
  destruct (lmem c (s_wait s)); injection H as <- <-; [|exact Hid]. rewrite notify_wake. eauto.
Qed.

Lemma sent_bad_down : forall s c m s' r, SInv s -> s_bad s = false -> sent s c m s' r -> s_bad s' = false.
Proof. intros s c m s' r I Hb Hs. destruct Hs; auto. apply dispatch_bad; auto. now apply send_pend_inv. Qed.

Theorem step_bad : forall s l s' ev, Inv s -> s_bad s = false -> step s l = Some (s', ev) -> s_bad s' = false.
Proof.
  intros s l s' ev [I [U W]] Hb Hst. apply step_trans in Hst. destruct Hst; try exact Hb.
  - (* t_submit *) eapply sent_bad_down; eauto.
  - (* t_finish *)
    unfold finished in Hf. change (s_shut (upd_thr s t (mkThr None [] false (th_exited h)))) with (s_shut s) in Hf.
    destruct (s_shut s) eqn:Hsh; [injection Hf as <- <-; auto|].
    pose proof (fin_core_inv s t h c I Hsh Ht Hc Hq Hr) as I2.
    destruct (fin_facts s t h c I Hsh Ht Hc) as [Hregc [Hpn [Hm Hex]]].
    assert (Hb2 : s_bad (fin_core (upd_thr s t (mkThr None [] false (th_exited h))) t c) = false).
    { unfold fin_core; sst; rewrite Hregc; sst.
      destruct (tget c (s_defer s)) as [[|d0 dr]|] eqn:Hd; sst; rewrite ?Hm; sst; rewrite ?Hb; auto.
      unfold qof. rewrite Hpn. reflexivity. }
    destruct (fin_notify_frame _ _ _ _ Hf) as [u [w [-> _]]]. now apply dispatch_bad.
  - (* t_unreg_begin *) unfold unreg_begin in Hb0. destruct (outstanding s c); injection Hb0 as <- <-; auto.
  - (* t_shut_end *) rewrite shut_end_eq in He. injection He as <- <-. exact Hb.
  - (* t_submit_stale *) eapply sent_bad_down; eauto.
Qed.

Theorem reach_bad : forall n s tr, reach n s tr -> s_bad s = false.
Proof.
  intros n s tr H. induction H; [reflexivity|]. eapply step_bad; eauto. eapply reach_inv; eauto.
Qed.
