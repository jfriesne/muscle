(* C18 -- further facts: the association lists never hold a key twice (they are faithful images of Hashtables); the paths of
   the upgrade code that the model leaves out (error returns of the inner UnlockReadOnly()/LockReadOnly() calls) are never
   taken; the thread the hand-off favours is admitted when it runs. *)
From Coq Require Import List Arith Bool Lia.
Import ListNotations.
From Muscle Require Import Conc.RwMutexModel Conc.RwMutexProofs Conc.RwMutexInv Conc.RwMutexLive.

Definition keys {A} (l : list (tid * A)) : list tid := map fst l.

Lemma nodup_snoc : forall (l : list tid) t, NoDup l -> ~ In t l -> NoDup (l ++ [t]).
Proof.
  induction l as [|a r IH]; cbn [app]; intros t Hn Hi.
  - constructor; auto.
  - inversion Hn; subst. constructor.
    + intros Hc. apply in_app_or in Hc. destruct Hc as [Hc|[Hc|[]]]; [contradiction|]. subst. apply Hi. left. reflexivity.
    + apply IH; auto. intros Hc. apply Hi. right. exact Hc.
Qed.

Lemma keys_setv : forall A t (v : A) l, keys (setv t v l) = keys l \/ (~ In t (keys l) /\ keys (setv t v l) = keys l ++ [t]).
Proof.
  induction l as [|[k w] r IH]; cbn [setv keys map fst app].
  - right. split; auto.
  - destruct (Nat.eqb k t) eqn:E; cbn [keys map fst]; [left; auto|].
    apply Nat.eqb_neq in E. destruct IH as [IH|[Hn IH]]; unfold keys in *; [left; rewrite IH; auto|right].
    split; [intros [Hc|Hc]; auto|]. rewrite IH. reflexivity.
Qed.

Lemma nodup_setv : forall A t (v : A) l, NoDup (keys l) -> NoDup (keys (setv t v l)).
Proof.
  intros A t v l H. destruct (keys_setv A t v l) as [->|[Hn ->]]; auto. apply nodup_snoc; auto.
Qed.

Lemma in_keys_remove : forall A t (l : list (tid * A)) k, In k (keys (remove t l)) -> In k (keys l).
Proof.
  induction l as [|[k' w] r IH]; cbn [remove keys map fst]; intros k H; auto.
  destruct (Nat.eqb k' t); [right; apply IH; exact H|]. destruct H as [H|H]; [left; auto|right; apply IH; exact H].
Qed.

Lemma nodup_remove : forall A t (l : list (tid * A)), NoDup (keys l) -> NoDup (keys (remove t l)).
Proof.
  induction l as [|[k w] r IH]; cbn [remove keys map fst]; intros H; auto.
  inversion H; subst. destruct (Nat.eqb k t); [apply IH; auto|].
  cbn [keys map fst]. constructor; [|apply IH; auto]. intros Hc. apply in_keys_remove in Hc. contradiction.
Qed.

Lemma keys_bump : forall l, keys (map bump l) = keys l.
Proof. induction l as [|[k c] r IH]; cbn [map keys fst bump]; auto. unfold keys in IH. rewrite IH. reflexivity. Qed.

Lemma nodup_setc : forall t c l, NoDup (keys l) -> NoDup (keys (setc t c l)).
Proof. intros t c l H. unfold setc. destruct (find t l); auto. apply nodup_setv; auto. Qed.

Definition nodup (g : gst) : Prop := NoDup (keys (g_exec g)) /\ NoDup (keys (g_wr g)) /\ NoDup (keys (g_ww g)).

Lemma nodup_all_readers : forall g, nodup g -> nodup (fst (notify_all_readers g)).
Proof. intros g (H1 & H2 & H3). unfold notify_all_readers, nodup. cbn [fst set_wr g_exec g_wr g_ww]. repeat split; auto. rewrite keys_bump. auto. Qed.

Lemma nodup_next_writer : forall g, nodup g -> nodup (fst (notify_next_writer g)).
Proof.
  intros g (H1 & H2 & H3). unfold notify_next_writer, nodup. destruct (g_ww g) as [|[t c] r] eqn:E; cbn [fst set_ww g_exec g_wr g_ww]; repeat split; auto.
  rewrite E. auto.
Qed.

Section P.
Variable pref : bool.

Lemma nodup_leave_wr : forall t g, nodup g -> nodup (leave_wr t g).
Proof. intros t g (H1 & H2 & H3). unfold leave_wr. destruct (find t (g_wr g)); unfold nodup; cbn [g_exec g_wr g_ww]; repeat split; auto using nodup_remove. Qed.

Lemma nodup_leave_ww : forall t g, nodup g -> nodup (leave_ww t g).
Proof. intros t g (H1 & H2 & H3). unfold leave_ww. destruct (find t (g_ww g)); unfold nodup; cbn [g_exec g_wr g_ww]; repeat split; auto using nodup_remove. Qed.

Lemma cs_nodup : forall t a g g' ns out, nodup g -> cs pref t a g = Some (g', ns, out) -> nodup g'.
Proof.
  intros t a g g' ns out Hn H. destruct (cs_shape _ _ _ _ _ _ _ H) as (g1 & g2 & U & L & N).
  assert (N1 : nodup g1).
  { destruct Hn as (H1 & H2 & H3).
    destruct U as [| tot x y p e _ _ _ | | | |]; unfold nodup, put; cbn [g_exec g_wr g_ww]; try destruct (mk_ent x y);
      auto using nodup_setv, nodup_remove. }
  assert (N2 : nodup g2) by (destruct L as [->|[[->| ->] _]]; auto using nodup_leave_wr, nodup_leave_ww).
  destruct N as [->|[->| ->]]; auto using nodup_all_readers, nodup_next_writer.
Qed.

Lemma step_nodup : forall t c g l g' l' o, nodup g -> step pref t c g l = Some (g', l', o) -> nodup g'.
Proof.
  intros t c g l g' l' o Hn H. destruct (step_cases _ _ _ _ _ _ _ _ H) as [(ns & out & E & _)|[[-> _]|[[-> _]|[-> _]]]];
    [eapply cs_nodup; eassumption | exact Hn | ..];
    destruct Hn as (H1 & H2 & H3); unfold nodup; cbn [set_wr set_ww g_exec g_wr g_ww]; auto using nodup_setc.
Qed.

(* the tables never hold a thread twice: the lists are faithful images of the Hashtables *)
Theorem nodup_reachable : forall s, reachable pref s -> nodup (s_g s).
Proof.
  intros s H. induction H as [|s lab s' o Hr IH Hs].
  - repeat split; constructor.
  - destruct lab as [t op|t c|p]; cbn [sys_step] in Hs.
    + destruct (begin_op op (s_l s t)); inversion Hs; subst; auto.
    + destruct (step pref t c (s_g s) (s_l s t)) as [[[g' l'] o']|] eqn:E; inversion Hs; subst. eapply step_nodup; eauto.
    + inversion Hs; subst. exact IH.
Qed.

(* the error returns inside the upgrade path that the model does not follow (MRETURN_ON_ERROR of the inner UnlockReadOnly(),
   failure of the inner LockReadOnly()) are never taken: those inner calls always return B_NO_ERROR *)
Theorem upgrade_inner_calls_succeed : forall s, reachable pref s -> forall t f k g' ns st,
  l_stk (s_l s t) = f :: k -> (match f with FInner _ => False | _ => True end) ->
  cs pref t (l_act (s_l s t)) (s_g s) = Some (g', ns, Done st) -> st = SOk.
Proof.
  intros s Hr t f k g' ns st Hs Hf H. destruct (inv_reachable pref s Hr) as [_ Hl].
  destruct (Hl t) as [Hwf Hex Hwr Hww]. apply wf_ctl in Hwf. remember (s_l s t) as l eqn:El. clear El.
  destruct (call_of (l_act l)) as [o|] eqn:Ho; [|destruct (l_act l); discriminate].
  destruct (cs_own pref _ _ _ _ _ _ _ _ _ H Ho Hex) as (Hret & _); auto.
  { intros Hi. rewrite (waiting_holds_nothing _ Hwf Hi). auto. }
  clear H Hex Hwr Hww Ho.
  destruct Hwf as [| | | n i d Hi | | | n i lrw d Hi Hl' | n d a Hn Hw]; cbn [l_stk] in Hs; try discriminate;
    injection Hs as <- _; try contradiction; cbn in Hret.
  - destruct st; cbn in Hret; auto; [contradiction | lia].
  - destruct st; cbn in Hret; auto; contradiction.
  - inversion Hw as [| d' ok Hd Hok | |]; subst; destruct st; cbn in Hret; auto; try contradiction.
    destruct ok; [contradiction | discriminate (Hok eq_refl)].
Qed.

(* the thread the hand-off favours is admitted when its critical section runs (unless somebody else took the lock first) *)
Theorem handoff_admits_writer : forall s, reachable pref s -> g_exec (s_g s) = [] ->
  forall h c r d, g_ww (s_g s) = (h, c) :: r -> l_act (s_l s h) = AWokeRW d true ->
  exists g' l' o, step pref h CRun (s_g s) (s_l s h) = Some (g', l', o) /\ find h (g_exec g') = Some (mkEnt 0 1) /\ memk h (g_ww g') = false.
Proof.
  intros s Hr Hn h c r d Ew Ha. unfold step, run_cs. rewrite Ha. cbn [cs]. unfold woke_rw. cbn [negb].
  assert (Hok : ok_writer h (s_g s) = true) by (unfold ok_writer; rewrite Hn, Ew, Nat.eqb_refl; reflexivity).
  rewrite Hok. destruct (complete (s_l s h) SOk) as [l' r']. do 3 eexists. split; [reflexivity|].
  rewrite leave_ww_exec, leave_ww_memk. cbn [g_exec]. rewrite find_setv_same. auto.
Qed.

Theorem handoff_admits_reader : forall s, reachable pref s -> g_exec (s_g s) = [] -> (pref = true -> g_ww (s_g s) = []) ->
  forall k d, l_act (s_l s k) = AWokeRO d true ->
  exists g' l' o, step pref k CRun (s_g s) (s_l s k) = Some (g', l', o) /\ find k (g_exec g') = Some (mkEnt 1 0) /\ memk k (g_wr g') = false.
Proof.
  intros s Hr Hn Hp k d Ha. destruct (inv_reachable pref s Hr) as [Hm _].
  unfold step, run_cs. rewrite Ha. cbn [cs]. unfold woke_ro. cbn [negb].
  assert (Hok : ok_readers pref (s_g s) = true).
  { unfold ok_readers. rewrite (exec_nil_total _ Hm Hn). cbn [Nat.eqb andb]. destruct pref; auto. rewrite Hp; auto. }
  rewrite Hok. destruct (complete (s_l s k) SOk) as [l' r']. do 3 eexists. split; [reflexivity|].
  rewrite leave_wr_exec, leave_wr_memk. cbn [set_exec g_exec]. rewrite find_setv_same. auto.
Qed.

End P.

(* writer preference at the level of the whole system: with preference on, as long as some writer waits, no transition of
   any thread turns a thread that holds nothing into a reader -- a reader that arrives after a waiting writer cannot be
   admitted before that writer has left the queue (by acquiring or by timing out) *)
Theorem writer_pref_sys : forall s lab s' o w,
  sys_step true s lab = Some (s', o) -> memk w (g_ww (s_g s)) = true ->
  forall r e, find r (g_exec (s_g s)) = None -> find r (g_exec (s_g s')) = Some e -> e = mkEnt 0 1.
Proof.
  intros s lab s' o w H Hw r e Hf Hf'. destruct lab as [t op|t c|p]; cbn [sys_step] in H.
  3: { inversion H; subst. cbn [s_g set_pool g_exec] in Hf'. congruence. }
  - destruct (begin_op op (s_l s t)); inversion H; subst. cbn [s_g] in Hf'. congruence.
  - destruct (step true t c (s_g s) (s_l s t)) as [[[g' l'] o']|] eqn:E; inversion H; subst. cbn [s_g] in Hf'.
    destruct (Nat.eq_dec r t) as [->|Hne].
    + destruct c.
      * destruct (admission true _ _ _ _ _ _ _ E Hf Hf') as [(_ & _ & Hq)|(He & _)]; auto.
        rewrite Hq in Hw by reflexivity. discriminate.
      * unfold step in E. destruct (l_act (s_l s t)); try discriminate; destruct d; try discriminate; inversion E; subst; congruence.
    + pose proof (step_frame true _ _ _ _ _ _ _ E) as [Fe _ _]. rewrite Fe in Hf' by auto. congruence.
Qed.

(* writers are served first-come first-served: while writers wait, only the head of the writer queue can become a writer *)
Theorem writer_fifo_sys : forall pref s lab s' o h c r,
  sys_step pref s lab = Some (s', o) -> g_ww (s_g s) = (h, c) :: r ->
  forall t, find t (g_exec (s_g s)) = None -> find t (g_exec (s_g s')) = Some (mkEnt 0 1) -> t = h.
Proof.
  intros pref s lab s' o h c r H Ew t Hf Hf'. destruct lab as [k op|k ch|p]; cbn [sys_step] in H.
  3: { inversion H; subst. cbn [s_g set_pool g_exec] in Hf'. congruence. }
  - destruct (begin_op op (s_l s k)); inversion H; subst. cbn [s_g] in Hf'. congruence.
  - destruct (step pref k ch (s_g s) (s_l s k)) as [[[g' l'] o']|] eqn:E; inversion H; subst. cbn [s_g] in Hf'.
    destruct (Nat.eq_dec t k) as [->|Hne].
    + destruct ch.
      * destruct (admission pref _ _ _ _ _ _ _ E Hf Hf') as [(He & _)|(_ & _ & [Hq|(c0 & r0 & Hq)])]; try discriminate; rewrite Ew in Hq; [discriminate|].
        inversion Hq. reflexivity.
      * unfold step in E. destruct (l_act (s_l s k)); try discriminate; destruct d; try discriminate; inversion E; subst; congruence.
    + pose proof (step_frame pref _ _ _ _ _ _ _ E) as [Fe _ _]. rewrite Fe in Hf' by auto. congruence.
Qed.
