(* C18 -- liveness of the hand-off under weak fairness.  On every infinite run in which each thread whose next transition stays
   enabled eventually takes it, a free lock with waiters does not stay that way: the waiter the hand-off favours acquires the
   lock -- unless somebody else takes it first, or that waiter's own timeout had fired and it leaves the queue. *)
From Coq Require Import List Arith Bool Lia.
Import ListNotations.
From Muscle Require Import Conc.RwMutexModel Conc.RwMutexProofs Conc.RwMutexInv Conc.RwMutexLive Conc.RwMutexExtras Conc.RwMutexProgress.

Definition wkeys (g : gst) : list tid := keys (g_ww g).
Definition rkeys (g : gst) : list tid := keys (g_wr g).
Definition drop (k : tid) (l : list tid) : list tid := filter (fun x => negb (Nat.eqb x k)) l.

(* how a queue's key list can change in one transition of thread k *)
Definition evo (k : tid) (blocked : Prop) (old new : list tid) : Prop :=
  new = old \/ (new = old ++ [k] /\ blocked) \/ new = drop k old.

Lemma keys_remove_drop : forall A k (l : list (tid * A)), keys (remove k l) = drop k (keys l).
Proof.
  induction l as [|[x v] r IH]; cbn [remove keys map fst drop filter]; auto.
  destruct (Nat.eqb x k); cbn [negb keys map fst]; [exact IH|]. unfold keys, drop in IH. rewrite IH. reflexivity.
Qed.

Lemma keys_setc : forall t c l, keys (setc t c l) = keys l.
Proof.
  intros t c l. unfold setc. destruct (find t l) eqn:E; auto.
  destruct (keys_setv _ t c l) as [H|[Hn _]]; auto. exfalso. apply Hn.
  clear -E. induction l as [|[x v] r IH]; cbn [find] in E; [discriminate|]. cbn [keys map fst].
  destruct (Nat.eqb x t) eqn:Ex; [left; apply Nat.eqb_eq; auto|right; apply IH; auto].
Qed.

Definition same_keys (g g' : gst) : Prop := wkeys g' = wkeys g /\ rkeys g' = rkeys g.

Lemma sk_all_readers : forall g, same_keys g (fst (notify_all_readers g)).
Proof. intros g. unfold notify_all_readers, same_keys, wkeys, rkeys. cbn [fst set_wr g_wr g_ww]. rewrite keys_bump. auto. Qed.

Lemma sk_next_writer : forall g, same_keys g (fst (notify_next_writer g)).
Proof.
  intros g. unfold notify_next_writer, same_keys, wkeys, rkeys. destruct (g_ww g) as [|[t c] r] eqn:E; cbn [fst set_ww g_wr g_ww]; rewrite ?E; auto.
Qed.

Section P.
Variable pref : bool.

Lemma evo_same : forall k b l, evo k b l l.
Proof. intros. left. reflexivity. Qed.

Lemma evo_setv : forall k (c : nat) (b : Prop) l, b -> evo k b (keys l) (keys (setv k c l)).
Proof. intros k c b l Hb. destruct (keys_setv _ k c l) as [H|[_ H]]; [left; auto|right; left; auto]. Qed.

Lemma evo_remove : forall k (b : Prop) (l : list (tid * nat)), evo k b (keys l) (keys (remove k l)).
Proof. intros. right. right. apply keys_remove_drop. Qed.

Lemma leave_wr_keys : forall k g b1 b2, evo k b1 (wkeys g) (wkeys (leave_wr k g)) /\ evo k b2 (rkeys g) (rkeys (leave_wr k g)).
Proof.
  intros k g b1 b2. unfold leave_wr, wkeys, rkeys. destruct (find k (g_wr g)); cbn [g_wr g_ww]; split; auto using evo_same, evo_remove.
Qed.

Lemma leave_ww_keys : forall k g b1 b2, evo k b1 (wkeys g) (wkeys (leave_ww k g)) /\ evo k b2 (rkeys g) (rkeys (leave_ww k g)).
Proof.
  intros k g b1 b2. unfold leave_ww, wkeys, rkeys. destruct (find k (g_ww g)); cbn [g_wr g_ww]; split; auto using evo_same, evo_remove.
Qed.

Definition evo2 (k : tid) (g g' : gst) : Prop :=
  evo k (ok_writer k g = false) (wkeys g) (wkeys g') /\ evo k (ok_readers pref g = false) (rkeys g) (rkeys g').

Lemma evo2_sk : forall k g g1 g2, evo2 k g g1 -> same_keys g1 g2 -> evo2 k g g2.
Proof. intros k g g1 g2 [H1 H2] [S1 S2]. unfold evo2. rewrite S1, S2. auto. Qed.

Lemma evo2_refl : forall k g, evo2 k g g.
Proof. intros. split; apply evo_same. Qed.

Lemma cs_keys : forall k a g g' ns out, cs pref k a g = Some (g', ns, out) -> evo2 k g g'.
Proof.
  intros k a g g' ns out H. destruct (cs_shape _ _ _ _ _ _ _ H) as (g1 & g2 & U & L & N).
  apply evo2_sk with g2; [|destruct N as [->|[->| ->]]; [split; reflexivity | apply sk_all_readers | apply sk_next_writer]].
  assert (U1 : evo2 k g g1).
  { destruct U as [| | | | c p Hok | c p Hok]; split; try apply evo_same.
    - unfold rkeys. cbn [g_wr]. apply evo_setv, Hok.
    - unfold wkeys. cbn [g_ww]. apply evo_setv, Hok. }
  destruct L as [->|[[->| ->] [Er Ew]]]; [exact U1 | |]; unfold evo2, wkeys, rkeys; rewrite <- Er, <- Ew.
  - apply leave_wr_keys.
  - apply leave_ww_keys.
Qed.

Lemma step_keys : forall k c g l g' l' o, step pref k c g l = Some (g', l', o) -> evo2 k g g'.
Proof.
  intros k c g l g' l' o H. destruct (step_cases _ _ _ _ _ _ _ _ H) as [(ns & out & E & _)|[[-> _]|[[-> _]|[-> _]]]].
  - eapply cs_keys, E.
  - apply evo2_refl.
  - split; [apply evo_same|]. unfold rkeys. cbn [set_wr g_wr]. rewrite keys_setc. apply evo_same.
  - split; [|apply evo_same]. unfold wkeys. cbn [set_ww g_ww]. rewrite keys_setc. apply evo_same.
Qed.

End P.

(* ---- infinite runs and weak fairness ---- *)

Lemma label_eq_dec : forall a b : label, {a = b} + {a <> b}.
Proof. repeat decide equality. Qed.

Record fair_run (pref : bool) (sigma : nat -> sys) (lam : nat -> label) : Prop := mkRun {
  run_init : reachable pref (sigma 0);
  run_step : forall i, exists o, sys_step pref (sigma i) (lam i) = Some (sigma (S i), o);
  (* weak fairness, constructive form: no thread's next transition stays enabled forever without being taken *)
  run_fair : forall t i, exists j, i <= j /\ (lam j = LStep t CRun \/ step pref t CRun (s_g (sigma j)) (s_l (sigma j) t) = None)
}.

Lemma run_reach : forall pref sigma lam, fair_run pref sigma lam -> forall i, reachable pref (sigma i).
Proof.
  intros pref sigma lam R i. induction i as [|i IH]; [apply (run_init _ _ _ R)|].
  destruct (run_step _ _ _ R i) as [o Hs]. eapply reach_step; eauto.
Qed.

Section Abstract.
Variable pref : bool.
Variable t : tid.
Variables (SF wk gone : sys -> Prop).
Hypothesis H_en : forall s, reachable pref s -> SF s -> step pref t CRun (s_g s) (s_l s t) <> None.
Hypothesis H_persist : forall s lab s' o, reachable pref s -> SF s -> sys_step pref s lab = Some (s', o) -> lab <> LStep t CRun ->
  g_exec (s_g s') <> [] \/ (SF s' /\ (wk s -> wk s')).
Hypothesis H_own : forall s s' o, reachable pref s -> SF s -> sys_step pref s (LStep t CRun) = Some (s', o) ->
  g_exec (s_g s') <> [] \/ gone s' \/ (SF s' /\ wk s' /\ ~ wk s).

Variables (sigma : nat -> sys) (lam : nat -> label).
Hypothesis R : fair_run pref sigma lam.

Definition X : label := LStep t CRun.

Lemma walk : forall d i, SF (sigma i) -> (forall m, i <= m < i + d -> lam m <> X) ->
  (exists m, i <= m <= i + d /\ g_exec (s_g (sigma m)) <> []) \/ (SF (sigma (i + d)) /\ (wk (sigma i) -> wk (sigma (i + d)))).
Proof.
  induction d as [|d IH]; intros i Hsf Hno.
  - right. rewrite Nat.add_0_r. auto.
  - assert (Hno' : forall m, i <= m < i + d -> lam m <> X) by (intros m Hm; apply Hno; lia).
    destruct (IH i Hsf Hno') as [(m & Hm & He)|[Hs Hw]]; [left; exists m; split; [lia|auto]|].
    destruct (run_step _ _ _ R (i + d)) as [o Hst].
    assert (Hne : lam (i + d) <> LStep t CRun) by (apply Hno; lia).
    destruct (H_persist _ _ _ _ (run_reach _ _ _ R (i + d)) Hs Hst Hne) as [He|[Hs' Hw']].
    + left. exists (S (i + d)). split; [lia|auto].
    + right. replace (i + S d) with (S (i + d)) by lia. auto.
Qed.

Lemma first_x : forall d i, (forall m, i <= m < i + d -> lam m <> X) \/
  (exists m0, i <= m0 < i + d /\ lam m0 = X /\ forall m, i <= m < m0 -> lam m <> X).
Proof.
  induction d as [|d IH]; intros i; [left; intros m Hm; lia|].
  destruct (IH i) as [Hno|(m0 & Hm0 & Hx & Hb)]; [|right; exists m0; split; [lia|split; auto]].
  destruct (label_eq_dec (lam (i + d)) X) as [Hx|Hx].
  - right. exists (i + d). split; [lia|]. split; [exact Hx|]. intros m Hm. apply Hno. lia.
  - left. intros m Hm. destruct (Nat.eq_dec m (i + d)) as [->|Hne]; auto. apply Hno. lia.
Qed.

Lemma next_own : forall i, SF (sigma i) ->
  exists m0, i <= m0 /\ ((exists m, i <= m <= m0 /\ g_exec (s_g (sigma m)) <> []) \/
                         (SF (sigma m0) /\ (wk (sigma i) -> wk (sigma m0)) /\ lam m0 = X)).
Proof.
  intros i Hsf. destruct (run_fair _ _ _ R t i) as (j & Hj & Hf).
  destruct (first_x (S (j - i)) i) as [Hno|(m0 & Hm0 & Hx & Hb)].
  - (* t takes no step in [i, j]: impossible, its transition is enabled at j *)
    exists j. split; auto. assert (Hno' : forall m, i <= m < i + (j - i) -> lam m <> X) by (intros m Hm; apply Hno; lia).
    destruct (walk (j - i) i Hsf Hno') as [(m & Hm & He)|[Hs Hw]].
    + left. exists m. split; [lia|auto].
    + replace (i + (j - i)) with j in * by lia. exfalso. destruct Hf as [Hf|Hf].
      * apply (Hno j); [lia|exact Hf].
      * apply (H_en _ (run_reach _ _ _ R j) Hs Hf).
  - exists m0. split; [lia|]. assert (Hno' : forall m, i <= m < i + (m0 - i) -> lam m <> X) by (intros m Hm; apply Hb; lia).
    destruct (walk (m0 - i) i Hsf Hno') as [(m & Hm & He)|[Hs Hw]].
    + left. exists m. split; [lia|auto].
    + replace (i + (m0 - i)) with m0 in * by lia. right. auto.
Qed.

Theorem fair_goal : forall i, SF (sigma i) -> exists j, i <= j /\ (g_exec (s_g (sigma j)) <> [] \/ gone (sigma j)).
Proof.
  intros i Hsf. destruct (next_own i Hsf) as (m0 & Hm0 & [(m & Hm & He)|(Hs & _ & Hx)]); [exists m; split; [lia|auto]|].
  destruct (run_step _ _ _ R m0) as [o Hst]. unfold X in Hx. rewrite Hx in Hst.
  destruct (H_own _ _ _ (run_reach _ _ _ R m0) Hs Hst) as [He|[Hg|(Hs1 & Hw1 & _)]];
    [exists (S m0); split; [lia|auto] | exists (S m0); split; [lia|auto] |].
  (* second round: t is woke now, so its next own transition admits it or removes it *)
  destruct (next_own (S m0) Hs1) as (m1 & Hm1 & [(m & Hm & He)|(Hs2 & Hw2 & Hx2)]); [exists m; split; [lia|auto]|].
  destruct (run_step _ _ _ R m1) as [o1 Hst1]. unfold X in Hx2. rewrite Hx2 in Hst1.
  destruct (H_own _ _ _ (run_reach _ _ _ R m1) Hs2 Hst1) as [He|[Hg|(_ & _ & Hn)]];
    [exists (S m1); split; [lia|auto] | exists (S m1); split; [lia|auto] | exfalso; apply Hn, Hw2, Hw1].
Qed.

End Abstract.

(* ---- the two instances: the first waiting writer, a waiting reader ---- *)

Lemma keys_head : forall (l : list (tid * nat)) t r, keys l = t :: r -> exists c r', l = (t, c) :: r'.
Proof. intros [|[k c] r'] t r H; cbn in H; [discriminate|]. inversion H; subst. eauto. Qed.

Lemma keys_nil : forall (l : list (tid * nat)), keys l = [] -> l = [].
Proof. intros [|x r] H; [auto|discriminate]. Qed.

Lemma head_evo : forall k (b : Prop) t r new, evo k b (t :: r) new -> t <> k -> exists r', new = t :: r'.
Proof.
  intros k b t r new [->|[[-> _]| ->]] Hne; [eauto|cbn; eauto|].
  unfold drop. cbn [filter]. destruct (Nat.eqb t k) eqn:E; [apply Nat.eqb_eq in E; contradiction|]. cbn [negb]. eauto.
Qed.

Lemma nil_evo : forall k (b : Prop) new, evo k b [] new -> ~ b -> new = [].
Proof. intros k b new [->|[[_ Hb]| ->]] Hn; auto. contradiction. Qed.

Section Inst.
Variable pref : bool.

Definition SFavW (t : tid) (s : sys) : Prop :=
  g_exec (s_g s) = [] /\ (exists r, wkeys (s_g s) = t :: r) /\ (pref = false -> g_wr (s_g s) = []).
Definition SFavR (t : tid) (s : sys) : Prop :=
  g_exec (s_g s) = [] /\ memk t (g_wr (s_g s)) = true /\ (pref = true -> g_ww (s_g s) = []).

Lemma sys_step_keys : forall s lab s' o t, sys_step pref s lab = Some (s', o) -> lab <> LStep t CRun ->
  (s_g s' = s_g s \/ (exists p, s_g s' = set_pool (s_g s) p) \/ exists k, k <> t /\ evo2 pref k (s_g s) (s_g s') /\ frame_ok k (s_g s) (s_g s')).
Proof.
  intros s lab s' o t H Hne. destruct lab as [k op|k c|p]; cbn [sys_step] in H.
  - destruct (begin_op op (s_l s k)); inversion H; subst. left. reflexivity.
  - destruct (step pref k c (s_g s) (s_l s k)) as [[[g' l'] o']|] eqn:E; inversion H; subst. cbn [s_g].
    destruct (Nat.eq_dec k t) as [->|Hk].
    + destruct c; [exfalso; apply Hne; reflexivity|]. left. unfold step in E. destruct (l_act (s_l s t)); try discriminate; destruct d; try discriminate; inversion E; reflexivity.
    + right. right. exists k. split; auto. split; [eapply step_keys; eauto|eapply step_frame; eauto].
  - inversion H; subst. right. left. exists p. reflexivity.
Qed.

Lemma acts_stable : forall s lab s' o t, sys_step pref s lab = Some (s', o) -> lab <> LStep t CRun ->
  (woke_w (acts s) t -> woke_w (acts s') t) /\ (woke_r (acts s) t -> woke_r (acts s') t).
Proof.
  intros s lab s' o t H Hne. destruct lab as [k op|k c|p]; cbn [sys_step] in H.
  - destruct (begin_op op (s_l s k)) as [l'|] eqn:Eb; inversion H; subst. unfold woke_w, woke_r, acts. cbn [s_l]. unfold upd.
    destruct (Nat.eqb t k) eqn:Ek; [|auto]. apply Nat.eqb_eq in Ek. subst k. unfold begin_op in Eb.
    split; intros (d & ok & Ha); rewrite Ha in Eb; discriminate.
  - destruct (step pref k c (s_g s) (s_l s k)) as [[[g' l'] o']|] eqn:E; inversion H; subst. unfold woke_w, woke_r, acts. cbn [s_l]. unfold upd.
    destruct (Nat.eqb t k) eqn:Ek; [|auto]. apply Nat.eqb_eq in Ek. subst k. destruct c; [exfalso; apply Hne; reflexivity|].
    unfold step in E. split; intros (d & ok & Ha); rewrite Ha in E; discriminate.
  - inversion H; subst. auto.
Qed.

Lemma ok_readers_free : forall s, reachable pref s -> g_exec (s_g s) = [] -> pref = false -> ok_readers pref (s_g s) = true.
Proof.
  intros s Hr Hn Hp. destruct (inv_reachable pref s Hr) as [Hm _]. unfold ok_readers. rewrite (exec_nil_total _ Hm Hn), Hp. reflexivity.
Qed.

Lemma ok_writer_free : forall s k, g_exec (s_g s) = [] -> g_ww (s_g s) = [] -> ok_writer k (s_g s) = true.
Proof. intros s k Hn Hw. unfold ok_writer. rewrite Hn, Hw. reflexivity. Qed.

Lemma persistW : forall t s lab s' o, reachable pref s -> SFavW t s -> sys_step pref s lab = Some (s', o) -> lab <> LStep t CRun ->
  g_exec (s_g s') <> [] \/ (SFavW t s' /\ (woke_w (acts s) t -> woke_w (acts s') t)).
Proof.
  intros t s lab s' o Hr (Hn & (r & Hk) & Hp) H Hne.
  destruct (g_exec (s_g s')) eqn:Ex; [|left; discriminate]. right. split; [|apply (acts_stable _ _ _ _ _ H Hne)].
  destruct (sys_step_keys _ _ _ _ _ H Hne) as [Hg|[(p & Hg)|(k & Hkt & [Ew Er] & _)]].
  - unfold SFavW. rewrite Hg. eauto.
  - unfold SFavW, wkeys. rewrite Hg. cbn [set_pool g_exec g_ww g_wr]. eauto.
  - split; [auto|]. split.
    + rewrite Hk in Ew. apply head_evo in Ew; auto.
    + intros Hpf. specialize (Hp Hpf). unfold rkeys in Er. rewrite Hp in Er. cbn [keys map] in Er.
      apply nil_evo in Er; [apply keys_nil; exact Er|]. rewrite (ok_readers_free s Hr Hn Hpf). discriminate.
Qed.

Lemma persistR : forall t s lab s' o, reachable pref s -> SFavR t s -> sys_step pref s lab = Some (s', o) -> lab <> LStep t CRun ->
  g_exec (s_g s') <> [] \/ (SFavR t s' /\ (woke_r (acts s) t -> woke_r (acts s') t)).
Proof.
  intros t s lab s' o Hr (Hn & Hm & Hp) H Hne.
  destruct (g_exec (s_g s')) eqn:Ex; [|left; discriminate]. right. split; [|apply (acts_stable _ _ _ _ _ H Hne)].
  destruct (sys_step_keys _ _ _ _ _ H Hne) as [Hg|[(p & Hg)|(k & Hkt & [Ew Er] & [_ Fr _])]].
  - unfold SFavR. rewrite Hg. auto.
  - unfold SFavR. rewrite Hg. cbn [set_pool g_exec g_ww g_wr]. auto.
  - split; [auto|]. split.
    + rewrite Fr; auto.
    + intros Hpt. specialize (Hp Hpt). unfold wkeys in Ew. rewrite Hp in Ew. cbn [keys map] in Ew.
      apply nil_evo in Ew; [apply keys_nil; exact Ew|]. rewrite (ok_writer_free s k Hn Hp). discriminate.
Qed.

Lemma enabledW : forall t s, reachable pref s -> SFavW t s -> step pref t CRun (s_g s) (s_l s t) <> None.
Proof.
  intros t s Hr (Hn & (r & Hk) & Hp). destruct (keys_head _ _ _ Hk) as (c & r' & Ew).
  pose proof (J_reachable pref s Hr Hn) as HJ. unfold Jbody in HJ. destruct (inv_reachable pref s Hr) as [_ Hl].
  eapply awake_writer_enabled; [apply Hl|eapply find_head; eauto|].
  assert (Hh : head_awake (acts s) (g_ww (s_g s))).
  { destruct pref; [rewrite Ew in HJ; rewrite Ew; exact HJ|]. destruct HJ as [_ H2]. apply H2. apply Hp. reflexivity. }
  rewrite Ew in Hh. exact Hh.
Qed.

Lemma enabledR : forall t s, reachable pref s -> SFavR t s -> step pref t CRun (s_g s) (s_l s t) <> None.
Proof.
  intros t s Hr (Hn & Hm & Hp). unfold memk in Hm. destruct (find t (g_wr (s_g s))) as [c|] eqn:Ef; [|discriminate].
  pose proof (J_reachable pref s Hr Hn) as HJ. unfold Jbody in HJ. destruct (inv_reachable pref s Hr) as [_ Hl].
  eapply awake_reader_enabled; [apply Hl|exact Ef|].
  destruct pref; [rewrite (Hp eq_refl) in HJ; apply HJ; exact Ef|]. destruct HJ as [H1 _]. apply H1. exact Ef.
Qed.

Lemma ownW : forall t s s' o, reachable pref s -> SFavW t s -> sys_step pref s (LStep t CRun) = Some (s', o) ->
  g_exec (s_g s') <> [] \/ memk t (g_ww (s_g s')) = false \/ (SFavW t s' /\ woke_w (acts s') t /\ ~ woke_w (acts s) t).
Proof.
  intros t s s' o Hr (Hn & (r & Hk) & Hp) H. destruct (keys_head _ _ _ Hk) as (c & r' & Ew).
  destruct (inv_reachable pref s Hr) as [_ Hl]. destruct (Hl t) as [_ _ _ Hww].
  rewrite (head_memk _ _ _ _ Ew) in Hww. unfold inww in Hww.
  cbn [sys_step] in H. destruct (step pref t CRun (s_g s) (s_l s t)) as [[[g' l'] o']|] eqn:E; inversion H; subst; clear H. cbn [s_g].
  destruct (l_act (s_l s t)) eqn:Ha; try discriminate.
  - (* parked: Wait() returns *)
    unfold step in E. rewrite Ha in E. destruct (find t (g_ww (s_g s))) as [[|n]|]; try discriminate. inversion E; subst; clear E.
    right. right. split; [|split].
    + split; [exact Hn|]. split; [exists r; unfold wkeys; cbn [s_g set_ww g_ww]; rewrite keys_setc; exact Hk|exact Hp].
    + exists d, true. unfold acts. cbn [s_l]. rewrite upd_same. reflexivity.
    + intros (d0 & ok0 & Hc). unfold acts in Hc. rewrite Ha in Hc. discriminate.
  - destruct ok.
    + destruct (handoff_admits_writer pref s Hr Hn t c r' d Ew Ha) as (g2 & l2 & o2 & E2 & Hf2 & _).
      rewrite E in E2. inversion E2; subst. left. intros Hc. rewrite Hc in Hf2. discriminate.
    + right. left. unfold step, run_cs in E. rewrite Ha in E. cbn [cs] in E. unfold woke_rw in E. cbn [negb] in E.
      destruct (maybe_notify pref (leave_ww t (s_g s))) as [g2 ns2] eqn:Em. apply maybe_leave_ww in Em. destruct Em as (_ & Hm2 & _).
      destruct (complete (s_l s t) STimedOut). inversion E; subst. exact Hm2.
Qed.

Lemma ownR : forall t s s' o, reachable pref s -> SFavR t s -> sys_step pref s (LStep t CRun) = Some (s', o) ->
  g_exec (s_g s') <> [] \/ memk t (g_wr (s_g s')) = false \/ (SFavR t s' /\ woke_r (acts s') t /\ ~ woke_r (acts s) t).
Proof.
  intros t s s' o Hr (Hn & Hm & Hp) H.
  destruct (inv_reachable pref s Hr) as [_ Hl]. destruct (Hl t) as [_ _ Hwr _]. rewrite Hm in Hwr. unfold inwr in Hwr.
  cbn [sys_step] in H. destruct (step pref t CRun (s_g s) (s_l s t)) as [[[g' l'] o']|] eqn:E; inversion H; subst; clear H. cbn [s_g].
  destruct (l_act (s_l s t)) eqn:Ha; try discriminate.
  - unfold step in E. rewrite Ha in E. destruct (find t (g_wr (s_g s))) as [[|n]|]; try discriminate. inversion E; subst; clear E.
    right. right. split; [|split].
    + split; [exact Hn|]. split; [cbn [s_g set_wr g_wr]; rewrite memk_setc; exact Hm|exact Hp].
    + exists d, true. unfold acts. cbn [s_l]. rewrite upd_same. reflexivity.
    + intros (d0 & ok0 & Hc). unfold acts in Hc. rewrite Ha in Hc. discriminate.
  - destruct ok.
    + destruct (handoff_admits_reader pref s Hr Hn Hp t d Ha) as (g2 & l2 & o2 & E2 & Hf2 & _).
      rewrite E in E2. inversion E2; subst. left. intros Hc. rewrite Hc in Hf2. discriminate.
    + right. left. unfold step, run_cs in E. rewrite Ha in E. cbn [cs] in E. unfold woke_ro in E. cbn [negb] in E.
      destruct (maybe_notify pref (leave_wr t (s_g s))) as [g2 ns2] eqn:Em. apply maybe_leave_wr in Em. destruct Em as (_ & Hm2 & _).
      destruct (complete (s_l s t) STimedOut). inversion E; subst. exact Hm2.
Qed.

(* rw liveness of the hand-off under weak fairness: on every fair run, whenever the lock is free and somebody waits, the waiter the
   hand-off favours (t) gets the lock -- or somebody else takes it first, or t's own timeout had fired and it leaves the queue *)
Theorem fair_handoff : forall sigma lam, fair_run pref sigma lam -> forall i,
  g_exec (s_g (sigma i)) = [] -> (g_wr (s_g (sigma i)) <> [] \/ g_ww (s_g (sigma i)) <> []) ->
  exists t j, i <= j /\
    ((memk t (g_ww (s_g (sigma i))) = true /\ (g_exec (s_g (sigma j)) <> [] \/ memk t (g_ww (s_g (sigma j))) = false)) \/
     (memk t (g_wr (s_g (sigma i))) = true /\ (g_exec (s_g (sigma j)) <> [] \/ memk t (g_wr (s_g (sigma j))) = false))).
Proof.
  intros sigma lam R i Hn Hw.
  assert (HW : forall t c r, g_ww (s_g (sigma i)) = (t, c) :: r -> (pref = false -> g_wr (s_g (sigma i)) = []) ->
               exists t j, i <= j /\
    ((memk t (g_ww (s_g (sigma i))) = true /\ (g_exec (s_g (sigma j)) <> [] \/ memk t (g_ww (s_g (sigma j))) = false)) \/
     (memk t (g_wr (s_g (sigma i))) = true /\ (g_exec (s_g (sigma j)) <> [] \/ memk t (g_wr (s_g (sigma j))) = false)))).
  { intros t c r Ew Hp.
    assert (Hsf : SFavW t (sigma i)) by (split; [auto|split; [exists (keys r); unfold wkeys; rewrite Ew; reflexivity|exact Hp]]).
    destruct (fair_goal pref t (SFavW t) (fun s => woke_w (acts s) t) (fun s => memk t (g_ww (s_g s)) = false)
                (enabledW t) (persistW t) (ownW t) sigma lam R i Hsf) as (j & Hj & Hg).
    exists t, j. split; auto. left. split; auto. eapply head_memk; eauto. }
  assert (HR : forall t c, find t (g_wr (s_g (sigma i))) = Some c -> (pref = true -> g_ww (s_g (sigma i)) = []) ->
               exists t j, i <= j /\
    ((memk t (g_ww (s_g (sigma i))) = true /\ (g_exec (s_g (sigma j)) <> [] \/ memk t (g_ww (s_g (sigma j))) = false)) \/
     (memk t (g_wr (s_g (sigma i))) = true /\ (g_exec (s_g (sigma j)) <> [] \/ memk t (g_wr (s_g (sigma j))) = false)))).
  { intros t c Ef Hp.
    assert (Hm : memk t (g_wr (s_g (sigma i))) = true) by (eapply find_memk; eauto).
    assert (Hsf : SFavR t (sigma i)) by (split; [auto|split; auto]).
    destruct (fair_goal pref t (SFavR t) (fun s => woke_r (acts s) t) (fun s => memk t (g_wr (s_g s)) = false)
                (enabledR t) (persistR t) (ownR t) sigma lam R i Hsf) as (j & Hj & Hg).
    exists t, j. split; auto. }
  destruct (g_ww (s_g (sigma i))) as [|[h c] r] eqn:Ew; destruct (g_wr (s_g (sigma i))) as [|[k c'] r'] eqn:Er.
  - destruct Hw; contradiction.
  - apply (HR k c'); [cbn [find]; rewrite Nat.eqb_refl; reflexivity|auto].
  - apply (HW h c r); auto.
  - destruct pref eqn:Ep.
    + apply (HW h c r); [reflexivity|intros Hc; discriminate].
    + apply (HR k c'); [cbn [find]; rewrite Nat.eqb_refl; reflexivity|intros Hc; discriminate].
Qed.

End Inst.

(* fair runs exist: e.g. the run in which nothing but the environment moves (no thread has an enabled transition) *)
Example fair_run_exists : forall pref, fair_run pref (fun _ => sys0) (fun _ => LEnv []).
Proof.
  intros pref. constructor.
  - apply reach_init.
  - intros i. exists no_out. reflexivity.
  - intros t i. exists i. split; [lia|]. right. reflexivity.
Qed.
