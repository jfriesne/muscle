(* C11 -- the no-lost-wake-up invariants of the Thread messaging LTS (Conc/ThreadQ.v).

   For each direction: whenever the reader of a queue has committed itself to block without looking at the queue again
   and the queue is not empty, a wake-up token exists: its wait is already satisfiable (signal bytes / end-of-file /
   notifications pending) or some thread that found the queue empty when it appended has yet to send its signal
   (or, for the internal thread, the owner has yet to send StartInternalThread's initial signal).

   This holds for every program of every thread and for both kinds of internal thread, for StartInternalThread as
   repaired ([early] = false: needsInitialSignal is read under the lock after the socket pair and the thread exist).
   With the order the code had before ([early] = true) an event-driven internal thread can lose a wake-up
   (ThreadQProofs.evd_lost_wakeup_refuted). *)
From Coq Require Import List Arith Bool Lia NArith.
From Muscle Require Import Conc.ThreadQ Conc.ThreadQWf.
Import ListNotations.

Definition pendU (f : pc -> bool) (L : tid -> local) : Prop := exists t, f (l_pc (L t)) = true.

Lemma pendU_upd_keep : forall f L t l', f (l_pc (L t)) = false -> f (l_pc l') = false -> (pendU f (upd L t l') <-> pendU f L).
Proof.
  intros f L t l' H1 H2. unfold pendU, upd. split; intros [u Hu].
  - destruct (Nat.eqb_spec u t); [congruence | eauto].
  - exists u. destruct (Nat.eqb_spec u t); [subst; congruence | exact Hu].
Qed.

Lemma pendU_upd_new : forall f L t l', f (l_pc l') = true -> pendU f (upd L t l').
Proof. intros f L t l' H. exists t. unfold upd. rewrite Nat.eqb_refl. exact H. Qed.

Lemma pendU_upd_mono : forall f L t l', f (l_pc (L t)) = false -> pendU f L -> pendU f (upd L t l').
Proof.
  intros f L t l' H1 [u Hu]. exists u. unfold upd. destruct (Nat.eqb_spec u t); [subst; congruence | exact Hu].
Qed.

(* a thread that owes the internal thread a signal: it appended to an empty queue, or it is StartInternalThread
   which has yet to look at the queue (under the lock) or has found it non-empty (needsInitialSignal) *)
Definition is_pend_i (p : pc) : bool :=
  match p with PSendSig CI true | PStartSpawned | PStartCheck | PStartSig true => true | _ => false end.

Definition is_pend_o (p : pc) : bool :=
  match p with PSendSig CO true => true | _ => false end.

Lemma is_pend_i_inv : forall p, is_pend_i p = true ->
  p = PSendSig CI true \/ p = PStartSpawned \/ p = PStartCheck \/ p = PStartSig true.
Proof. intros p H. destruct p as [| | [] [] | | | | | | | | | | [] | | | | | | | | | | | | | |]; try discriminate H; auto. Qed.

(* the internal thread will try to dequeue before it next blocks (or it is on its way out) *)
Definition will_look (evd : bool) (p : pc) : bool :=
  match p with
  | PRecvPark CI _ => false
  | PRecvNone CI WPoll => negb evd
  | PRecvNone CI _ => false
  | PIEntry | PIStartupCS | PIAfterStartup | PILoop => negb evd
  | PIEvLoop | PIEvWait => false
  | _ => true
  end.

Definition tok_i (s : sys) : Prop := readable (s_g s) CI = true \/ pendU is_pend_i (s_l s).

Definition A_i (s : sys) : Prop :=
  g_ist (s_g s) = ILive -> will_look (g_evd (s_g s)) (l_pc (g_il (s_g s))) = false -> c_q (g_ci (s_g s)) <> [] -> tok_i s.

(* the owner has committed itself to block on the reply queue *)
Definition parked_o (s : sys) : bool :=
  match l_pc (s_l s 0) with
  | PRecvPark CO _ => true
  | PRecvNone CO WPoll => false
  | PRecvNone CO _ => negb (g_sockets (s_g s)) || g_alloc (s_g s)
  | _ => false
  end.

Definition tok_o (s : sys) : Prop :=
  readable (s_g s) CO = true \/ pendU is_pend_o (s_l s) \/ (g_ist (s_g s) = ILive /\ is_pend_o (l_pc (g_il (s_g s))) = true).

Definition A_o (s : sys) : Prop := parked_o s = true -> c_q (g_co (s_g s)) <> [] -> tok_o s.

(* a parked owner's socket is valid *)
Definition P_o (s : sys) : Prop :=
  forall w, l_pc (s_l s 0) = PRecvPark CO w -> g_sockets (s_g s) = true -> g_alloc (s_g s) = true.

Record wake (s : sys) : Prop := mkWake {
  wk_ai : A_i s;
  wk_ao : A_o s;
  wk_po : P_o s
}.

Lemma wc_inc_pos : forall nl old, (0 < nl)%N -> N.ltb 0 (wc_inc nl old) = true.
Proof.
  intros nl old H. unfold wc_inc. apply N.ltb_lt.
  destruct (N.ltb_spec old ((old + 1) mod 4294967296)); lia.
Qed.

Lemma signal_CI_readable : forall nl g g' e, (0 < nl)%N -> signal nl CI g = (g', e) ->
  (g_sockets g = true -> g_alloc g = true /\ g_iopen g = true) -> readable g' CI = true.
Proof.
  intros nl g g' e Hnl H Hs. unfold signal in H. destruct (g_sockets g) eqn:Es.
  - destruct (Hs eq_refl) as [Ha Ho]. rewrite Ha, Ho in H. inv H. unfold readable; simpl. rewrite Es. reflexivity.
  - inv H. unfold readable; simpl. rewrite Es. apply wc_inc_pos; exact Hnl.
Qed.

Lemma signal_CO_readable : forall nl g g' e, (0 < nl)%N -> signal nl CO g = (g', e) ->
  (g_sockets g = true -> g_alloc g = true) -> readable g' CO = true.
Proof.
  intros nl g g' e Hnl H Hs. unfold signal in H. destruct (g_sockets g) eqn:Es.
  - rewrite (Hs eq_refl) in H. simpl in H. destruct (g_iopen g) eqn:Eo; inv H; unfold readable; simpl; rewrite ?Es; simpl;
      rewrite ?(Hs eq_refl), ?Eo; simpl; auto using orb_true_r.
  - inv H. unfold readable; simpl. rewrite Es. apply wc_inc_pos; exact Hnl.
Qed.

Lemma signal_readable_mono : forall nl c c' g g' e, (0 < nl)%N -> signal nl c g = (g', e) -> readable g c' = true -> readable g' c' = true.
Proof.
  intros nl c c' g g' e Hnl H R. unfold signal in H. unfold readable in *.
  destruct c, c', (g_sockets g) eqn:Es, (g_alloc g) eqn:Ea, (g_iopen g) eqn:Eo; simpl in *; inv H; simpl;
    rewrite ?Es, ?Ea, ?Eo; simpl; auto;
    try (apply wc_inc_pos; exact Hnl);
    try (apply Nat.ltb_lt in R; apply Nat.ltb_lt; lia);
    try (apply orb_true_iff in R; destruct R as [R|R]; [apply Nat.ltb_lt in R | discriminate]; apply orb_true_iff; left; apply Nat.ltb_lt; lia).
Qed.

Lemma alloc_noop : forall g, wfg g -> g_ist g = ILive -> alloc_sockets g = g.
Proof.
  intros g (W1 & W2 & W3 & W4) Hl. unfold alloc_sockets. destruct (g_sockets g) eqn:Es; simpl; auto.
  destruct (W2 Hl eq_refl) as [Ha _]. rewrite Ha. reflexivity.
Qed.

Lemma tok_o_transfer : forall s g' t l',
  tok_o s ->
  g_ist g' = g_ist (s_g s) -> g_il g' = g_il (s_g s) ->
  (readable (s_g s) CO = true -> readable g' CO = true) ->
  is_pend_o (l_pc (s_l s t)) = false ->
  tok_o (mkS g' (upd (s_l s) t l')).
Proof.
  intros s g' t l' T H1 H2 H3 H4. unfold tok_o in *. simpl. rewrite H1, H2.
  destruct T as [R | [P | Q]]; [left; auto | right; left; apply pendU_upd_mono; auto | right; right; exact Q].
Qed.

Lemma readable_same_counts : forall g g' c,
  g_sockets g' = g_sockets g -> g_alloc g' = g_alloc g -> g_iopen g' = g_iopen g ->
  c_sig (ch g' c) = c_sig (ch g c) -> c_wc (ch g' c) = c_wc (ch g c) -> readable g' c = readable g c.
Proof. intros g g' c H1 H2 H3 H4 H5. unfold readable. rewrite H1, H2, H3, H4, H5. reflexivity. Qed.

Lemma readable_set_enq : forall g x m c, readable (set_ch x (enq (ch g x) m) g) c = readable g c.
Proof. intros g x m c. apply readable_same_counts; destruct x, c; reflexivity. Qed.

Lemma readable_set_deq : forall g x m r c, readable (set_ch x (deq (ch g x) m r) g) c = readable g c.
Proof. intros g x m r c. apply readable_same_counts; destruct x, c; reflexivity. Qed.

Lemma parked_o_other : forall s g' t l', t <> 0 ->
  g_sockets g' = g_sockets (s_g s) -> g_alloc g' = g_alloc (s_g s) ->
  parked_o (mkS g' (upd (s_l s) t l')) = parked_o s.
Proof.
  intros s g' t l' Ht H1 H2. unfold parked_o. simpl. unfold upd. destruct (Nat.eqb_spec 0 t); [congruence|].
  rewrite H1, H2. reflexivity.
Qed.

Lemma parked_alloc : forall s, P_o s -> parked_o s = true -> g_sockets (s_g s) = true -> g_alloc (s_g s) = true.
Proof.
  intros s Po. unfold parked_o. intros Hp Hs. destruct (l_pc (s_l s 0)) eqn:Ep; try discriminate; destruct c; try discriminate.
  - destruct w; try discriminate; rewrite Hs in Hp; simpl in Hp; exact Hp.
  - eapply Po; eauto.
Qed.

Section Wake.
Variable absorb_n : nat.
Variable no_limit : N.
Variable react : nat -> list (chanid * msg) * bool.
Hypothesis Hnl : (0 < no_limit)%N.

Notation Step := (Step false absorb_n no_limit react).

(* the program counters at which a step can make the wait of channel x's reader unsatisfiable: the reader's own absorb
   and wake-up, the (re)allocation and the closing of the socket pair *)
Definition eats (x : chanid) (p : pc) : bool :=
  match p with
  | PRecvAbsorb y _ | PRecvPark y _ => chan_eqb x y
  | PStartSpawn _ | PGetSock | PJoinWait => true
  | PIExit => match x with CI => true | CO => false end
  | _ => false
  end.

Lemma Step_readable : forall c g l g' l' ev x, Step c g l g' l' ev -> eats x (l_pc l) = false ->
  readable g x = true -> readable g' x = true.
Proof.
  intros c g l g' l' ev y HS He Hr.
  inversion HS; subst; clear HS; simpl in He; try discriminate He; auto;
    try (rewrite readable_set_enq; exact Hr);
    try (rewrite readable_set_deq; exact Hr);
    try (eapply signal_readable_mono; eauto; fail);
    try (unfold park_flags; destruct x; try destruct (u_reg (g_usr g)); exact Hr).
  - (* the other reader's absorb *)
    pose proof (absorb_frame absorb_n x g) as F. simpl in F. destruct F as (F1 & _ & F3 & _ & F5 & _ & _ & _ & _ & F10).
    rewrite <- Hr. apply readable_same_counts; auto; rewrite F10; auto; intros ->; destruct x; discriminate He.
  - destruct x, y; try discriminate He; exact Hr.
  - (* the thread leaves: end-of-file for the owner *)
    destruct y; [discriminate He|]. unfold readable, exited in *. simpl in *. destruct (g_sockets g); [|exact Hr].
    simpl. apply orb_true_iff in Hr. apply orb_true_iff. destruct Hr as [Hr | Hr]; [left; exact Hr | right].
    apply andb_true_iff in Hr. rewrite (proj1 Hr). reflexivity.
  - match goal with Hu' : user_step _ _ = _ |- _ => apply user_step_frame in Hu'; destruct Hu' as [? ->] end. exact Hr.
Qed.

Lemma user_readable_mono : forall t c g l g' l' ev,
  wfg g -> g_ist g = ILive -> upc_ok t l -> (forall n, l_pc l <> PStartSpawn n) ->
  Step c g l g' l' ev -> readable g CI = true -> readable g' CI = true.
Proof.
  intros t c g [p k] g' l' ev Wg Hl Hu Hns HS Hr.
  destruct (eats CI p) eqn:He; [|eapply Step_readable; eauto].
  unfold upc_ok in Hu. simpl in *.
  destruct p; try discriminate He; try (destruct c0; try discriminate He; destruct k; contradiction);
    try contradiction; inversion HS; subst.
  - exfalso. eapply Hns; reflexivity.
  - congruence.
  - rewrite (alloc_noop _ Wg Hl). exact Hr.
Qed.

Lemma user_step_ci : forall {t c g l g' l' ev}, upc_ok t l -> life_pc (l_pc l) = false ->
  Step c g l g' l' ev ->
  g_ist g' = g_ist g /\ g_il g' = g_il g /\ g_evd g' = g_evd g /\ c_rcvd (g_ci g') = c_rcvd (g_ci g) /\
  (c_q (g_ci g') = c_q (g_ci g) \/ exists m, l_pc l = PSendCS CI m /\ c_q (g_ci g') = c_q (g_ci g) ++ [m]).
Proof.
  intros t c g l g' l' ev Hu Lp Hst.
  destruct (Step_running _ _ _ _ Hst) as [[n E] | [E | [E | (_ & R2 & R3 & _)]]];
    [rewrite E in Lp; discriminate .. | destruct l as [p k]; simpl in E; subst p; destruct Hu |].
  split; [exact R2|]. split; [exact R3|]. split; [apply (Step_const _ _ _ _ Hst)|].
  split;
    destruct (Step_queues _ _ _ _ Hst CI) as [(Q & _ & Q3) | [(m & E & Q) | (w & m & r & E & _)]]; auto;
    try (exfalso; destruct l as [p k]; simpl in E; subst p; unfold upc_ok in Hu; simpl in Hu; destruct k; contradiction);
    simpl in Q; rewrite Q; [reflexivity | right; exists m; auto].
Qed.

Lemma live_life_pc : forall {m e s t c g' l' ev}, wf m e s -> g_ist (s_g s) = ILive ->
  Step c (s_g s) (s_l s t) g' l' ev -> life_pc (l_pc (s_l s t)) = false.
Proof.
  intros m e s t c g' l' ev W0 Hl Hst. destruct (life_pc (l_pc (s_l s t))) eqn:Lp; [exfalso | reflexivity].
  pose proof (upc_life _ _ (wf_upc _ _ _ W0 t) Lp). subst t.
  destruct (s_l s 0) as [p k] eqn:El. simpl in Lp. destruct p; try discriminate Lp.
  - pose proof (wf_start_idle _ _ _ W0 needs) as Hr. rewrite El, (wf_running _ _ _ W0), Hl in Hr. discriminate Hr. reflexivity.
  - inversion Hst; subst. congruence.
Qed.

Lemma A_i_user_step : forall sm em s t p k c g' l' e',
  wf sm em s -> wake s ->
  s_l s t = mkL p k ->
  Step c (s_g s) (mkL p k) g' l' e' ->
  A_i (mkS g' (upd (s_l s) t l')).
Proof.
  intros sm em s t p k c g' l' e' W Wk El Hst.
  pose proof (wf_wfg _ _ _ W) as Wg.
  assert (Hu : upc_ok t (mkL p k)) by (rewrite <- El; apply (wf_upc _ _ _ W)).
  (* a thread that comes to owe the signal is the token *)
  destruct (is_pend_i (l_pc l')) eqn:Pn; [intros _ _ _; right; apply pendU_upd_new; exact Pn|].
  destruct (life_pc p) eqn:Lp.
  { destruct p; try discriminate Lp; inversion Hst; subst; [discriminate Pn | intros Hl; discriminate Hl]. }
  destruct (user_step_ci Hu Lp Hst) as (I1 & I2 & I3 & _ & Hq).
  intros Hl Hw Hne. simpl in Hl, Hw, Hne. rewrite I1 in Hl. rewrite I2, I3 in Hw.
  assert (Hr : readable (s_g s) CI = true -> readable g' CI = true).
  { eapply user_readable_mono; eauto. intros n E. simpl in E. subst p. discriminate Lp. }
  destruct (is_pend_i p) eqn:Pp.
  - (* it has just sent the signal it owed: the wait is satisfiable (the queue was found empty: no token needed) *)
    left. simpl. pose proof (wf_live_sock _ _ _ W Hl) as Hsock.
    inversion Hst; subst; simpl in Pp, Pn; try discriminate Pp; try discriminate Pn.
    + destruct x; [|discriminate Pp]. match goal with Hs : signal _ _ _ = _ |- _ => exact (signal_CI_readable _ _ _ _ Hnl Hs Hsock) end.
    + destruct x; discriminate Pp.
    + destruct (c_q (g_ci (s_g s))); [contradiction | discriminate Pn].
    + match goal with Hs : signal _ _ _ = _ |- _ => exact (signal_CI_readable _ _ _ _ Hnl Hs Hsock) end.
  - (* otherwise the token that was there is still there *)
    assert (T : tok_i s).
    { apply (wk_ai _ Wk Hl Hw). destruct Hq as [Q | (m & E & Q)]; [rewrite <- Q; exact Hne|].
      simpl in E. subst p. inversion Hst; subst. simpl in Pn. intros E. rewrite E in Pn. discriminate Pn. }
    destruct T as [Rd | P]; [left; simpl; auto | right; apply pendU_upd_mono; [rewrite El; exact Pp | exact P]].
Qed.

(* where the internal thread goes after a reply / a received Message: somewhere it will look at its queue again *)
Lemma next_reply_looks : forall evd rs q k p k' e', next_reply evd rs q k = (p, k', e') -> will_look evd p = true.
Proof.
  intros evd rs q k p k' e' H. unfold next_reply in H. destruct rs as [|[c0 m0] rest]; inv H; [|reflexivity].
  destruct q; [reflexivity|]. destruct evd; reflexivity.
Qed.

Lemma int_step_look : forall {c g l g' l' ev}, ipc_ok l -> Step c g l g' l' ev ->
  will_look (g_evd g) (l_pc l') = true \/
  (will_look (g_evd g) (l_pc l) = false /\ g_ist g' = g_ist g /\ c_q (g_ci g') = c_q (g_ci g) /\
   (readable g CI = true -> readable g' CI = true)) \/
  ((exists w, l_pc l = PRecvCS CI w) /\ c_q (g_ci g') = []).
Proof.
  intros c g l g' l' ev Hi Hst.
  pose proof (Step_const _ _ _ _ Hst) as [_ Hc2].
  match goal with |- ?G =>
    assert (Keep : forall b, b = false -> g_ist g' = g_ist g -> c_q (g_ci g') = c_q (g_ci g) ->
                   (readable g CI = true -> readable g' CI = true) -> will_look (g_evd g) (l_pc l) = b -> G)
      by (intros b -> K1 K2 K3 K4; right; left; auto) end.
  inv_int Hst Hi; try (left; reflexivity).
  - (* S_SendSig_first: a Message of the reaction was signalled: on to the next one, or poll again, or leave *)
    left. rewrite <- Hc2. eapply next_reply_looks. simpl in *. eassumption.
  - (* S_SendSig_not *)
    left. eapply next_reply_looks. simpl in *. eassumption.
  - (* S_RecvCS_none: the queue was empty *)
    right; right. split; [eexists; reflexivity | assumption].
  - (* S_RecvGot: a Message was received *)
    left.
    match goal with Hr : ret _ _ _ _ = _ |- _ => simpl in Hr; unfold dispatch in Hr; rename Hr into HR end.
    destruct m as [y|].
    + destruct (next_reply (g_evd g') (fst (react y)) (snd (react y)) []) as [[p1 k1] e1] eqn:En. inv HR.
      eapply next_reply_looks; eauto.
    + inv HR. reflexivity.
  - (* S_RecvNone_poll: the poll found nothing *)
    kill_ret.
    destruct (g_evd g') eqn:Ee; [eapply Keep; simpl; rewrite ?Ee; auto | left; reflexivity].
  - (* S_RecvNone_park *)
    eapply Keep; auto. destruct w; try reflexivity. congruence.
  - (* S_RecvNone_bad *)
    kill_ret. left; reflexivity.
  - (* S_Park_timeout: a timed wait of the internal thread timed out *)
    kill_ret.
    destruct (g_evd g') eqn:Ee; [eapply Keep; simpl; rewrite ?Ee; auto | left; reflexivity].
  - (* S_IEntry *)
    destruct (g_evd g') eqn:Ee; [eapply Keep; simpl; rewrite ?Ee; auto | left; reflexivity].
  - (* S_IStartupCS_empty *)
    destruct (g_evd g') eqn:Ee; [eapply Keep; simpl; rewrite ?Ee; auto | left; reflexivity].
  - (* S_IStartupCS_signal: the start-up signal to the owner *)
    match goal with Hs : signal _ _ _ = _ |- _ =>
      pose proof (signal_readable_mono _ _ CI _ _ _ Hnl Hs) as Hr; apply signal_frame in Hs;
      destruct Hs as (_ & _ & _ & _ & _ & F6 & _ & _ & F9 & _) end.
    destruct (g_evd g) eqn:Ee; [|left; reflexivity].
    eapply Keep; simpl; rewrite ?Ee; auto. apply (F9 CI).
  - (* S_IAfterStartup *)
    destruct (g_evd g') eqn:Ee; [eapply Keep; simpl; rewrite ?Ee; auto | left; reflexivity].
  - (* S_ILoop_evd *)
    eapply Keep; simpl; auto. match goal with He : g_evd _ = true |- _ => rewrite He end. reflexivity.
  - (* S_IEvLoop_park *)
    eapply Keep; simpl; auto.
  - (* S_Park_wake_io: woken by a user socket, which cannot happen for the internal thread and would make it leave *)
    kill_ret. left; reflexivity.
Qed.

Lemma A_i_int_step : forall sm em s p k c g' l' e',
  wf sm em s -> wake s ->
  g_ist (s_g s) = ILive -> g_il (s_g s) = mkL p k ->
  Step c (s_g s) (mkL p k) g' l' e' ->
  A_i (mkS (set_il l' g') (s_l s)).
Proof.
  intros sm em s p k c g' l' e' W Wk Hl El Hst.
  assert (Hi : ipc_ok (mkL p k)) by (rewrite <- El; apply (wf_ipc _ _ _ W); exact Hl).
  pose proof (Step_const _ _ _ _ Hst) as [_ Hc2].
  destruct (int_step_look Hi Hst) as [Look | [(K4 & K1 & K2 & K3) | [_ Hq]]].
  - intros _ Hw. simpl in Hw. rewrite Hc2 in Hw. congruence.
  - intros Hl' _ Hq. simpl in Hl', Hq. rewrite K1 in Hl'. rewrite K2 in Hq. rewrite <- El in K4.
    destruct (wk_ai _ Wk Hl' K4 Hq) as [R | P]; [left; exact (K3 R) | right; exact P].
  - intros _ _ Hne. contradiction.
Qed.

(* which steps touch _messageSocketsAllocated *)
Lemma Step_alloc : forall {c g l g' l' ev}, Step c g l g' l' ev ->
  (g_alloc g' = g_alloc g /\ g_sockets g' = g_sockets g) \/ (exists n, l_pc l = PStartSpawn n) \/ l_pc l = PJoinWait \/ l_pc l = PGetSock.
Proof.
  intros c g l g' l' ev HS. inversion HS; subst; clear HS; simpl; eauto;
    try (left;
         try match goal with Hs : signal _ _ _ = _ |- _ => apply signal_frame in Hs end;
         try match goal with Hu : user_step _ _ = _ |- _ => apply user_step_frame in Hu; destruct Hu as [? ->] end;
         unfold park_flags;
         try match goal with x : chanid |- _ => destruct x end;
         try match goal with |- context [if u_reg ?u then _ else _] => destruct (u_reg u) end; simpl; tauto).
  - left. pose proof (absorb_frame absorb_n x g). simpl in *. tauto.
Qed.

Lemma is_pend_o_inv : forall p, is_pend_o p = true -> p = PSendSig CO true.
Proof. intros p H. destruct p; try discriminate H. destruct c; try discriminate H. destruct first; [reflexivity | discriminate H]. Qed.

(* a thread other than the owner is idle, sending, or writing to the owner's user socket *)
Definition sender_pc (p : pc) : bool :=
  match p with PIdle | PSendCS _ _ | PSendSig _ _ | PUser UPing => true | _ => false end.

Lemma upc_other : forall t l, upc_ok t l -> t <> 0 -> sender_pc (l_pc l) = true.
Proof.
  intros t [p k] Hu Ht. unfold upc_ok in Hu. simpl in *.
  destruct p; try reflexivity; try contradiction;
    repeat match goal with y : chanid |- _ => destruct y | y : uop |- _ => destruct y end; try reflexivity;
    destruct k as [|[] [|? ?]]; try contradiction; congruence.
Qed.

Lemma sender_step_co : forall {c g l g' l' ev}, sender_pc (l_pc l) = true -> Step c g l g' l' ev ->
  g_ist g' = g_ist g /\ g_il g' = g_il g /\ g_sockets g' = g_sockets g /\ g_alloc g' = g_alloc g /\
  (c_q (g_co g') = c_q (g_co g) \/ exists m, l_pc l = PSendCS CO m /\ c_q (g_co g') = c_q (g_co g) ++ [m]) /\
  (readable g CO = true -> readable g' CO = true).
Proof.
  intros c g l g' l' ev Hs Hst.
  destruct (Step_running _ _ _ _ Hst) as [[n E] | [E | [E | (_ & R2 & R3 & _)]]];
    [rewrite E in Hs; discriminate Hs .. |].
  destruct (Step_alloc Hst) as [[A1 A2] | [[n E] | [E | E]]]; [| rewrite E in Hs; discriminate Hs ..].
  repeat split; auto.
  - destruct (Step_queues _ _ _ _ Hst CO) as [(Q & _) | [(m & E & Q) | (w & m & r & E & _)]];
      [auto | right; exists m; simpl in Q; rewrite Q; auto | rewrite E in Hs; discriminate Hs].
  - eapply Step_readable; eauto. destruct (l_pc l); try discriminate Hs; reflexivity.
Qed.

Lemma int_step_co : forall {c g l g' l' ev}, ipc_ok l -> Step c g l g' l' ev ->
  (g_ist g' = g_ist g \/ l_pc l' = PIDone) /\ g_sockets g' = g_sockets g /\ g_alloc g' = g_alloc g /\
  (c_q (g_co g') = c_q (g_co g) \/ exists m, l_pc l = PSendCS CO m /\ c_q (g_co g') = c_q (g_co g) ++ [m]) /\
  (readable g CO = true -> readable g' CO = true).
Proof.
  intros c g [p k] g' l' ev Hi Hst. unfold ipc_ok in Hi. simpl in Hi.
  split; [|split; [|split; [|split]]].
  - destruct (Step_running _ _ _ _ Hst) as [[n E] | [E | [E | (_ & R2 & _)]]]; auto;
      simpl in E; subst p; try contradiction. inversion Hst; subst. right. reflexivity.
  - apply (Step_const _ _ _ _ Hst).
  - destruct (Step_alloc Hst) as [[A1 _] | [[n E] | [E | E]]]; auto; simpl in E; subst p; contradiction.
  - destruct (Step_queues _ _ _ _ Hst CO) as [(Q & _) | [(m & E & Q) | (w & m & r & E & _)]];
      [auto | right; exists m; simpl in Q; rewrite Q; auto | simpl in E; subst p; destr_k k].
  - eapply Step_readable; eauto. simpl.
    destruct p; try reflexivity; try contradiction; destruct c0; try reflexivity; destr_k k.
Qed.

Lemma owner_commits : forall {c g l g' l' ev}, Step c g l g' l' ev ->
  (forall w, l_pc l' = PRecvNone CO w -> g' = g /\ c_q (g_co g) = []) /\
  (forall w, l_pc l' = PRecvPark CO w ->
     l_pc l = PRecvNone CO w /\ w <> WPoll /\ g' = g /\ (g_sockets g = true -> g_alloc g = true)).
Proof.
  intros c g l g' l' ev HS.
  inversion HS; subst; clear HS;
    (split; intros w0 Hq; simpl in Hq; try discriminate Hq;
     try (match goal with Hr : ret _ _ _ _ = _ |- _ => apply ret_target in Hr; rewrite Hq in Hr; discriminate Hr end));
    inv Hq; repeat split; auto.
  match goal with Hf : _ -> fd_ok _ CO = true |- _ => intros Hs; specialize (Hf Hs); unfold fd_ok in Hf;
    rewrite Hs in Hf; simpl in Hf; rewrite andb_true_r in Hf; exact Hf end.
Qed.

Lemma A_o_user_step : forall sm em s t p k c g' l' e',
  wf sm em s -> wake s ->
  s_l s t = mkL p k ->
  Step c (s_g s) (mkL p k) g' l' e' ->
  A_o (mkS g' (upd (s_l s) t l')).
Proof.
  intros sm em s t p k c g' l' e' W Wk El Hst.
  assert (Hu : upc_ok t (mkL p k)) by (rewrite <- El; apply (wf_upc _ _ _ W)).
  destruct (Nat.eq_dec t 0) as [Ht | Ht].
  - (* the owner's own step *)
    subst t. destruct (owner_commits Hst) as [OC1 OC2].
    unfold A_o, parked_o. simpl. rewrite upd_same.
    destruct (l_pc l'); try discriminate; destruct c0; try discriminate.
    + (* the reply queue was empty *)
      destruct (OC1 _ eq_refl) as [-> Hq]. intros _ Hne. contradiction.
    + (* about to block: it was committed already *)
      destruct (OC2 _ eq_refl) as (Ep & Hw & -> & Hal). simpl in Ep. subst p. intros _ Hne.
      assert (Pk : parked_o s = true).
      { unfold parked_o. rewrite El. simpl. destruct w; try congruence; destruct (g_sockets (s_g s)); simpl; auto. }
      apply tok_o_transfer; auto using (wk_ao _ Wk Pk Hne). rewrite El. reflexivity.
  - (* another thread's step: it can only be sending *)
    destruct (sender_step_co (upc_other _ _ Hu Ht) Hst) as (I1 & I2 & C1 & C2 & Hq & Hr).
    unfold A_o. rewrite parked_o_other by auto. intros Pk Hne. simpl in Hne.
    (* a thread that comes to owe the signal is the token *)
    destruct (is_pend_o (l_pc l')) eqn:Pn; [right; left; apply pendU_upd_new; exact Pn|].
    destruct (is_pend_o p) eqn:Pp.
    + (* it has just sent the signal it owed *)
      left. simpl. rewrite (is_pend_o_inv _ Pp) in Hst. inversion Hst; subst.
      match goal with Hs : signal _ _ _ = _ |- _ => exact (signal_CO_readable _ _ _ _ Hnl Hs (parked_alloc s (wk_po _ Wk) Pk)) end.
    + (* otherwise the token that was there is still there *)
      apply tok_o_transfer; auto; [|rewrite El; exact Pp].
      apply (wk_ao _ Wk Pk). destruct Hq as [Q | (m & E & Q)]; [rewrite <- Q; exact Hne|].
      simpl in E. subst p. inversion Hst; subst. simpl in Pn. intros E. rewrite E in Pn. discriminate Pn.
Qed.

Lemma A_o_int_step : forall sm em s p k c g' l' e',
  wf sm em s -> wake s ->
  g_ist (s_g s) = ILive -> g_il (s_g s) = mkL p k ->
  Step c (s_g s) (mkL p k) g' l' e' ->
  A_o (mkS (set_il l' g') (s_l s)).
Proof.
  intros sm em s p k c g' l' e' W Wk Hl El Hst.
  assert (Hi : ipc_ok (mkL p k)) by (rewrite <- El; apply (wf_ipc _ _ _ W); exact Hl).
  destruct (int_step_co Hi Hst) as (I1 & C1 & C2 & Hq & Hr).
  unfold A_o, parked_o. simpl. rewrite C1, C2. intros Pk Hne. change (parked_o s = true) in Pk.
  destruct (is_pend_o (l_pc l')) eqn:Pn.
  { right; right. simpl. split; [|exact Pn]. destruct I1 as [I1 | E]; [congruence | rewrite E in Pn; discriminate Pn]. }
  destruct (is_pend_o p) eqn:Pp.
  - (* a reply's signal *)
    left. rewrite (is_pend_o_inv _ Pp) in Hst. inversion Hst; subst.
    match goal with Hs : signal _ _ _ = _ |- _ => exact (signal_CO_readable _ _ _ _ Hnl Hs (parked_alloc s (wk_po _ Wk) Pk)) end.
  - (* otherwise the token that was there is still there (the thread's exit is end-of-file on the owner's socket) *)
    assert (T : tok_o s).
    { apply (wk_ao _ Wk Pk). destruct Hq as [Q | (m & E & Q)]; [rewrite <- Q; exact Hne|].
      simpl in E. subst p. inversion Hst; subst. simpl in Pn. intros E. rewrite E in Pn. discriminate Pn. }
    destruct T as [R | [U | [_ I]]].
    + left. apply Hr in R. exact R.
    + right. left. exact U.
    + rewrite El in I. simpl in I. congruence.
Qed.

Variable ok : label -> bool.
Variables smode emode : bool.

Notation sys_step := (sys_step false absorb_n no_limit react).
Notation reachable_if := (reachable_if false absorb_n no_limit react).

Lemma wake_init : wake (sys0 smode emode).
Proof.
  constructor.
  - intros H. discriminate.
  - intros H. discriminate.
  - intros w H. discriminate.
Qed.

Lemma pc_of_op_unparked : forall o,
  (match pc_of_op o with PRecvPark CO _ | PRecvNone CO _ => false | _ => true end) = true.
Proof. intros [[] ?| | | | | | []]; reflexivity. Qed.

Lemma wake_step : forall s lab s' ev, wf smode emode s -> wake s -> ok lab = true ->
  sys_step s lab = Some (s', ev) -> wake s'.
Proof.
  intros s lab s' ev W Wk Hok H.
  destruct (sys_step_spec _ _ _ _ H) as [t o Hp Hk Ha | t c g' l' e' Hst | c g' l' e' Hl Hst]; clear H.
  - (* a thread starts an API call *)
    pose proof (pc_of_op_unparked o) as Hop.
    destruct Wk as [Ai Ao Po].
    constructor.
    + intros Hl Hw Hq. destruct (Ai Hl Hw Hq) as [R | P]; [left; exact R | right].
      apply pendU_upd_mono; [rewrite Hp; reflexivity | exact P].
    + destruct (Nat.eq_dec t 0) as [-> | Ht].
      * intros Pk. exfalso. unfold parked_o in Pk. simpl in Pk.
        destruct (pc_of_op o); try discriminate; destruct c; discriminate.
      * unfold A_o. rewrite parked_o_other by auto. intros Pk Hne.
        apply tok_o_transfer; [apply Ao; assumption | reflexivity | reflexivity | auto | rewrite Hp; reflexivity].
    + intros w. simpl. unfold upd. destruct (Nat.eqb_spec 0 t).
      * simpl. intros Hq. rewrite Hq in Hop. discriminate Hop.
      * apply Po.
  - (* a user thread's step *)
    destruct (s_l s t) as [p k] eqn:El.
    assert (Hu : upc_ok t (mkL p k)) by (rewrite <- El; apply (wf_upc _ _ _ W)).
    constructor.
    + eapply A_i_user_step; eauto.
    + eapply A_o_user_step; eauto.
    + (* the socket pair stays allocated under a parked owner *)
      intros w. simpl. unfold upd. destruct (Nat.eqb_spec 0 t) as [<- | Ht].
      * intros Hq. destruct (proj2 (owner_commits Hst) _ Hq) as (_ & _ & -> & Hal). exact Hal.
      * intros Hq Hs.
        destruct (sender_step_co (upc_other _ _ Hu (not_eq_sym Ht)) Hst) as (_ & _ & C1 & C2 & _).
        rewrite C2. rewrite C1 in Hs. eapply (wk_po _ Wk); eauto.
  - (* the internal thread's step *)
    destruct (g_il (s_g s)) as [p k] eqn:El.
    assert (Hi : ipc_ok (mkL p k)) by (rewrite <- El; apply (wf_ipc _ _ _ W); exact Hl).
    constructor.
    + eapply A_i_int_step; eauto.
    + eapply A_o_int_step; eauto.
    + intros w. simpl. intros Hq Hs. destruct (int_step_co Hi Hst) as (_ & C1 & C2 & _).
      rewrite C2. rewrite C1 in Hs. eapply (wk_po _ Wk); eauto.
Qed.

Theorem reachable_wake : forall s, reachable_if ok smode emode s -> wake s.
Proof.
  intros s H. induction H.
  - apply wake_init.
  - eapply wake_step; eauto. eapply reachable_wf; eauto.
Qed.

End Wake.
