(* C18 -- no lost wake-up, no stranding, writer preference: safety forms (DESIGN.md section 3). *)
From Coq Require Import List Arith Bool Lia.
Import ListNotations.
From Muscle Require Import Conc.RwMutexModel Conc.RwMutexProofs Conc.RwMutexInv.

(* a waiting thread is awake when a notification is pending for it, or when it has already returned from Wait()
   (notified or timed out) and is about to re-take _stateMutex: in both cases one of its transitions is enabled *)
Definition woke_r (A : tid -> act) (k : tid) : Prop := exists d ok, A k = AWokeRO d ok.
Definition woke_w (A : tid -> act) (k : tid) : Prop := exists d ok, A k = AWokeRW d ok.
Definition awake_r (A : tid -> act) (k : tid) (c : nat) : Prop := 0 < c \/ woke_r A k.
Definition awake_w (A : tid -> act) (k : tid) (c : nat) : Prop := 0 < c \/ woke_w A k.

Definition all_awake (A : tid -> act) (wr : list (tid * nat)) : Prop := forall k c, find k wr = Some c -> awake_r A k c.
Definition head_awake (A : tid -> act) (ww : list (tid * nat)) : Prop :=
  match ww with (h, c) :: _ => awake_w A h c | [] => True end.

Section P.
Variable pref : bool.

(* what must hold whenever nobody holds the lock: the threads that the hand-off policy favours are awake *)
Definition Jbody (g : gst) (A : tid -> act) : Prop :=
  if pref
  then match g_ww g with [] => all_awake A (g_wr g) | _ => head_awake A (g_ww g) end
  else all_awake A (g_wr g) /\ (g_wr g = [] -> head_awake A (g_ww g)).

Definition acts (s : sys) : tid -> act := fun k => l_act (s_l s k).
Definition J (s : sys) : Prop := g_exec (s_g s) = [] -> Jbody (s_g s) (acts s).

Lemma head_memk : forall (ww : list (tid * nat)) h c r, ww = (h, c) :: r -> memk h ww = true.
Proof. intros ww h c r ->. unfold memk. cbn [find]. rewrite Nat.eqb_refl. reflexivity. Qed.

Lemma find_memk : forall (l : list (tid * nat)) k c, find k l = Some c -> memk k l = true.
Proof. intros l k c H. unfold memk. rewrite H. reflexivity. Qed.

(* only the wokeness of the threads in the waiting tables matters *)
Lemma Jbody_awake : forall g A A',
  (forall k, memk k (g_wr g) = true -> woke_r A k -> woke_r A' k) ->
  (forall k, memk k (g_ww g) = true -> woke_w A k -> woke_w A' k) ->
  Jbody g A -> Jbody g A'.
Proof.
  intros g A A' Hr Hw. unfold Jbody.
  assert (Hall : all_awake A (g_wr g) -> all_awake A' (g_wr g)).
  { intros H k c Hf. destruct (H k c Hf) as [Hc|Hk]; [left; auto|right]. apply Hr; auto. eapply find_memk; eauto. }
  assert (Hhd : head_awake A (g_ww g) -> head_awake A' (g_ww g)).
  { unfold head_awake. destruct (g_ww g) as [|[h c] r] eqn:E; auto.
    intros [Hc|Hk]; [left; auto|right]. apply Hw; auto. eapply head_memk; reflexivity. }
  destruct pref.
  - destruct (g_ww g); auto.
  - intros [H1 H2]. split; auto.
Qed.

(* threads that are in no waiting table do not matter *)
Lemma Jbody_ext : forall g A A',
  (forall k, memk k (g_wr g) = true \/ memk k (g_ww g) = true -> A' k = A k) -> Jbody g A -> Jbody g A'.
Proof.
  intros g A A' Hext. apply Jbody_awake; intros k Hk (d & ok & H); exists d, ok; rewrite Hext; auto.
Qed.

(* NotifySomeWaitingThreads establishes it from scratch, whatever the threads are doing *)
Lemma notify_some_J : forall g g2 ns A, notify_some pref g = (g2, ns) -> Jbody g2 A.
Proof.
  intros g g2 ns A H. unfold notify_some in H. unfold Jbody, all_awake, head_awake.
  assert (Hall : forall g', g_wr g' = map bump (g_wr g) -> forall k c, find k (g_wr g') = Some c -> awake_r A k c).
  { intros g' E k c Hf. rewrite E, find_bump in Hf. destruct (find k (g_wr g)); inversion Hf. left. lia. }
  destruct (g_wr g) as [|[k0 c0] r0] eqn:Er; destruct (g_ww g) as [|[h c] r] eqn:Ew; cbn [is_nil negb andb] in H.
  - inversion H; subst. rewrite Er, Ew. destruct pref; [|split; auto]; intros k c Hf; discriminate.
  - unfold notify_next_writer in H. rewrite Ew in H. inversion H; subst. cbn [set_ww g_ww g_wr]. rewrite Er.
    destruct pref; [left; lia|]. split; [intros k c' Hf; discriminate|]. intros _. left. lia.
  - unfold notify_all_readers in H. inversion H; subst. cbn [set_wr g_ww g_wr]. rewrite Ew.
    destruct pref; [|split; [|intros Hc; rewrite Er in Hc; discriminate]]; apply (Hall (set_wr g (map bump (g_wr g)))); cbn [set_wr g_wr]; rewrite Er; reflexivity.
  - destruct pref.
    + unfold notify_next_writer in H. rewrite Ew in H. inversion H; subst. cbn [set_ww g_ww]. left. lia.
    + unfold notify_all_readers in H. inversion H; subst. cbn [set_wr g_ww g_wr].
      split; [apply (Hall (set_wr g (map bump (g_wr g)))); cbn [set_wr g_wr]; rewrite Er; reflexivity|]. rewrite Er. intros Hc. discriminate.
Qed.


(* a transition of t that leaves the tables alone: t may only gain wokeness where it matters *)
Lemma J_mono : forall g A A' t,
  (forall k, k <> t -> A' k = A k) ->
  (memk t (g_wr g) = true -> woke_r A t -> woke_r A' t) ->
  (memk t (g_ww g) = true -> woke_w A t -> woke_w A' t) ->
  Jbody g A -> Jbody g A'.
Proof.
  intros g A A' t Ho Hr Hw. apply Jbody_awake; intros k Hk Hwk;
    (destruct (Nat.eq_dec k t) as [->|Hne]; [auto | destruct Hwk as (d & ok & H); exists d, ok; rewrite Ho; auto]).
Qed.

Lemma find_setc_same : forall t c (l : list (tid * nat)), memk t l = true -> find t (setc t c l) = Some c.
Proof. intros t c l H. unfold setc, memk in *. destruct (find t l); [apply find_setv_same|discriminate]. Qed.

Lemma find_setc_other : forall t k c (l : list (tid * nat)), k <> t -> find k (setc t c l) = find k l.
Proof. intros t k c l H. unfold setc. destruct (find t l); [apply find_setv_other; auto|auto]. Qed.

Lemma setc_nil : forall t c (l : list (tid * nat)), setc t c l = [] -> l = [].
Proof. intros t c l H. unfold setc in H. destruct (find t l); auto. apply setv_not_nil in H. contradiction. Qed.

Lemma setv_head : forall t h (c x : nat) r, h <> t -> setv t c ((h, x) :: r) = (h, x) :: setv t c r.
Proof. intros. cbn [setv]. destruct (Nat.eqb h t) eqn:E; auto. apply Nat.eqb_eq in E. contradiction. Qed.

Lemma setc_head : forall t (c : nat) (l : list (tid * nat)) h x r, l = (h, x) :: r ->
  exists x' r', setc t c l = (h, x') :: r' /\ (h <> t -> x' = x) /\ (h = t -> x' = c).
Proof.
  intros t c l h x r ->. unfold setc. destruct (find t ((h, x) :: r)) eqn:E.
  - cbn [setv]. destruct (Nat.eqb h t) eqn:Eh.
    + apply Nat.eqb_eq in Eh. do 2 eexists. split; [reflexivity|]. split; congruence.
    + apply Nat.eqb_neq in Eh. do 2 eexists. split; [reflexivity|]. split; congruence.
  - do 2 eexists. split; [reflexivity|]. split; auto. intros ->. cbn [find] in E. rewrite Nat.eqb_refl in E. discriminate.
Qed.

(* Wait() returned with a notification: the counter is flushed, the thread is now woke *)
Lemma J_wake_ro : forall g A A' t,
  (forall k, k <> t -> A' k = A k) -> woke_r A' t -> memk t (g_wr g) = true -> memk t (g_ww g) = false ->
  Jbody g A -> Jbody (set_wr g (setc t 0 (g_wr g))) A'.
Proof.
  intros g A A' t Ho Ht Hin Hnw. unfold Jbody. cbn [set_wr g_wr g_ww].
  assert (Hall : all_awake A (g_wr g) -> all_awake A' (setc t 0 (g_wr g))).
  { intros H k c Hf. destruct (Nat.eq_dec k t) as [->|Hne]; [right; auto|].
    rewrite find_setc_other in Hf by auto. destruct (H k c Hf) as [Hc|(d & ok & Hk)]; [left; auto|right].
    exists d, ok. rewrite Ho; auto. }
  assert (Hhd : head_awake A (g_ww g) -> head_awake A' (g_ww g)).
  { unfold head_awake. destruct (g_ww g) as [|[h c] r] eqn:E; auto.
    assert (h <> t). { intros ->. unfold memk in Hnw. cbn [find] in Hnw. rewrite Nat.eqb_refl in Hnw. discriminate. }
    intros [Hc|(d & ok & Hk)]; [left; auto|right]. exists d, ok. rewrite Ho; auto. }
  destruct pref.
  - destruct (g_ww g); auto.
  - intros [H1 H2]. split; auto. intros Hn. apply setc_nil in Hn. auto.
Qed.

Lemma J_wake_rw : forall g A A' t,
  (forall k, k <> t -> A' k = A k) -> woke_w A' t -> memk t (g_ww g) = true -> memk t (g_wr g) = false ->
  Jbody g A -> Jbody (set_ww g (setc t 0 (g_ww g))) A'.
Proof.
  intros g A A' t Ho Ht Hin Hnr. unfold Jbody. cbn [set_ww g_wr g_ww].
  assert (Hall : all_awake A (g_wr g) -> all_awake A' (g_wr g)).
  { intros H k c Hf. assert (k <> t). { intros ->. unfold memk in Hnr. rewrite Hf in Hnr. discriminate. }
    destruct (H k c Hf) as [Hc|(d & ok & Hk)]; [left; auto|right]. exists d, ok. rewrite Ho; auto. }
  assert (Hhd : head_awake A (g_ww g) -> head_awake A' (setc t 0 (g_ww g))).
  { unfold head_awake. destruct (g_ww g) as [|[h c] r] eqn:E.
    - unfold setc. cbn [find]. auto.
    - destruct (setc_head t 0 _ h c r eq_refl) as (x' & r' & Hs & Hne & Heq). rewrite Hs.
      destruct (Nat.eq_dec h t) as [->|Hn]; [intros _; right; auto|].
      rewrite (Hne Hn). intros [Hc|(d & ok & Hk)]; [left; auto|right]. exists d, ok. rewrite Ho; auto. }
  destruct pref.
  - destruct (g_ww g) as [|[h c] r] eqn:E.
    + unfold setc. cbn [find]. auto.
    + destruct (setc_head t 0 _ h c r eq_refl) as (x' & r' & Hs & _ & _). intros H. specialize (Hhd H). rewrite Hs in *. exact Hhd.
  - intros [H1 H2]. split; auto.
Qed.

(* a writer joins the queue behind its head, or re-parks without being the head *)
Lemma J_behind_head : forall g A A' t h x r ww',
  (forall k, k <> t -> A' k = A k) -> g_ww g = (h, x) :: r -> h <> t -> memk t (g_wr g) = false ->
  (ww' = g_ww g \/ exists c, ww' = setv t c (g_ww g)) ->
  forall tot ex p, Jbody g A -> Jbody (mkG tot ex (g_wr g) ww' p) A'.
Proof.
  intros g A A' t h x r ww' Ho Ew Hh Hnr Hww tot ex p. unfold Jbody. cbn [g_wr g_ww].
  assert (Hall : all_awake A (g_wr g) -> all_awake A' (g_wr g)).
  { intros H k c Hf. assert (k <> t). { intros ->. unfold memk in Hnr. rewrite Hf in Hnr. discriminate. }
    destruct (H k c Hf) as [Hc|(d & ok & Hk)]; [left; auto|right]. exists d, ok. rewrite Ho; auto. }
  assert (Hw' : exists r', ww' = (h, x) :: r').
  { destruct Hww as [->|[c ->]]; rewrite Ew; [eauto|]. rewrite setv_head by auto. eauto. }
  destruct Hw' as [r' ->]. rewrite Ew.
  assert (Hhd : awake_w A h x -> awake_w A' h x).
  { intros [Hc|(d & ok & Hk)]; [left; auto|right]. exists d, ok. rewrite Ho; auto. }
  unfold head_awake. destruct pref; auto. intros [H1 H2]. split; auto.
Qed.

(* a reader joins or re-joins the queue while a writer is waiting under writer preference *)
Lemma J_reader_behind_writer : forall g A A' t wr',
  pref = true -> g_ww g <> [] -> memk t (g_ww g) = false -> (forall k, k <> t -> A' k = A k) ->
  forall tot ex p, Jbody g A -> Jbody (mkG tot ex wr' (g_ww g) p) A'.
Proof.
  intros g A A' t wr' Hp Hne Hnw Ho tot ex p. unfold Jbody. rewrite Hp. cbn [g_wr g_ww].
  destruct (g_ww g) as [|[h c] r] eqn:E; [contradiction|].
  assert (h <> t). { intros ->. unfold memk in Hnw. cbn [find] in Hnw. rewrite Nat.eqb_refl in Hnw. discriminate. }
  unfold head_awake. intros [Hc|(d & ok & Hk)]; [left; auto|right]. exists d, ok. rewrite Ho; auto.
Qed.


Lemma exec_nil_total : forall g, mode g -> g_exec g = [] -> g_total g = 0.
Proof. intros g [[H _]|(t & e & Hx & _)] Hn; auto. rewrite Hn in Hx. discriminate. Qed.

Lemma maybe_fires : forall g, g_total g = 0 -> g_exec g = [] -> maybe_notify pref g = notify_some pref g.
Proof. intros g Ht Hx. unfold maybe_notify. rewrite Ht, Hx. reflexivity. Qed.

Lemma memk_false_ne : forall (l : list (tid * nat)) t h c r, memk t l = false -> l = (h, c) :: r -> h <> t.
Proof. intros l t h c r Hm -> ->. unfold memk in Hm. cbn [find] in Hm. rewrite Nat.eqb_refl in Hm. discriminate. Qed.

Lemma ok_writer_false : forall t g, ok_writer t g = false -> g_exec g = [] -> exists h c r, g_ww g = (h, c) :: r /\ h <> t.
Proof.
  intros t g H Hx. unfold ok_writer in H. rewrite Hx in H. cbn [is_nil andb] in H.
  destruct (g_ww g) as [|[h c] r]; [discriminate|]. exists h, c, r. split; auto. apply Nat.eqb_neq. exact H.
Qed.

Lemma ok_readers_false : forall g, ok_readers pref g = false -> g_total g = 0 -> pref = true /\ g_ww g <> [].
Proof.
  intros g H Ht. unfold ok_readers in H. rewrite Ht in H. cbn [Nat.eqb andb] in H.
  destruct pref; cbn [negb orb] in H; [|discriminate]. split; auto. intros Hn. rewrite Hn in H. discriminate.
Qed.

Lemma maybe_notify_J : forall g1 g2 ns A, maybe_notify pref g1 = (g2, ns) -> g_total g2 = 0 -> g_exec g2 = [] -> Jbody g2 A.
Proof.
  intros g1 g2 ns A E Ht Hx. pose proof (maybe_notify_shape pref g1) as S. rewrite E in S. cbn [fst] in S.
  destruct S as [St Se _ _ _ _ _]. rewrite maybe_fires in E by congruence. eapply notify_some_J; eauto.
Qed.

(* the critical sections: if nobody holds the lock afterwards, the favoured waiters are awake *)
Lemma J_cs : forall t a g g' ns out (A A' : tid -> act),
  mode g -> mode g' ->
  memk t (g_wr g) = in_wr a -> memk t (g_ww g) = in_ww a ->
  A t = a ->
  (forall k, k <> t -> A' k = A k) ->
  (match out with Parked a' _ => A' t = a' | _ => True end) ->
  (g_exec g = [] -> Jbody g A) ->
  cs pref t a g = Some (g', ns, out) -> g_exec g' = [] -> Jbody g' A'.
Proof.
  intros t a g g' ns out A A' Hm Hm' Hwr Hww Ha Ho Hp HJ H Hn'.
  pose proof (exec_nil_total _ Hm' Hn') as Ht'.
  assert (Hstay : g' = g -> memk t (g_wr g) = false -> memk t (g_ww g) = false -> Jbody g' A').
  { intros -> H1 H2. eapply J_mono; [exact Ho| | |apply HJ; auto]; intros Hc; congruence. }
  destruct a; cbn [cs] in H; try discriminate; inversion H as [H1]; clear H.
  - (* enter_ro *)
    unfold enter_ro in H1. destruct (find t (g_exec g)) as [e|] eqn:Hf.
    + inversion H1; subst. cbn [set_exec g_exec] in Hn'. apply setv_not_nil in Hn'. contradiction.
    + destruct (ok_readers pref g) eqn:Hok.
      * inversion H1; subst. cbn [set_exec g_exec] in Hn'. apply setv_not_nil in Hn'. contradiction.
      * assert (Hpark : forall c p, g' = mkG (g_total g) (g_exec g) (setv t c (g_wr g)) (g_ww g) p -> Jbody g' A').
        { intros c p ->. cbn [g_exec g_total] in Hn', Ht'. destruct (ok_readers_false _ Hok Ht') as [Hpt Hwn].
          eapply J_reader_behind_writer; eauto. }
        destruct d.
        -- destruct (pool_get (g_pool g)) as [c p]. inversion H1; subst. eapply Hpark; eauto.
        -- inversion H1; subst. auto.
        -- destruct (pool_get (g_pool g)) as [c p]. inversion H1; subst. eapply Hpark; eauto.
  - (* enter_rw *)
    unfold enter_rw in H1. destruct (find t (g_exec g)) as [e|] eqn:Hf.
    + assert (Hne : g_exec g <> []) by (intros Hc; rewrite Hc in Hf; discriminate).
      destruct (Nat.ltb 0 (e_rw e) || Nat.eqb (length (g_exec g)) 1).
      * inversion H1; subst. cbn [g_exec] in Hn'. apply setv_not_nil in Hn'. contradiction.
      * destruct d; inversion H1; subst; contradiction.
    + destruct (ok_writer t g) eqn:Hok.
      * inversion H1; subst. cbn [g_exec] in Hn'. apply setv_not_nil in Hn'. contradiction.
      * assert (Hpark : forall c p, g' = mkG (g_total g) (g_exec g) (g_wr g) (setv t c (g_ww g)) p -> Jbody g' A').
        { intros c p ->. cbn [g_exec] in Hn'. destruct (ok_writer_false _ _ Hok Hn') as (h & x & r & Ew & Hh).
          eapply J_behind_head; eauto. }
        destruct d.
        -- destruct (pool_get (g_pool g)) as [c p]. inversion H1; subst. eapply Hpark; eauto.
        -- inversion H1; subst. auto.
        -- destruct (pool_get (g_pool g)) as [c p]. inversion H1; subst. eapply Hpark; eauto.
  - (* unlock_ro *)
    unfold unlock_ro in H1. destruct (find t (g_exec g)) as [e|] eqn:Hf; [|inversion H1; subst; auto].
    destruct (e_ro e) as [|r]; [inversion H1; subst; auto|].
    destruct (Nat.eqb r 0 && Nat.eqb (e_rw e) 0).
    + destruct (maybe_notify pref (set_exec g (remove t (g_exec g)))) as [g2 ns2] eqn:E. inversion H1; subst.
      eapply maybe_notify_J; eauto.
    + inversion H1; subst. cbn [set_exec g_exec] in Hn'. apply setv_not_nil in Hn'. contradiction.
  - (* unlock_rw *)
    unfold unlock_rw in H1. destruct (find t (g_exec g)) as [e|] eqn:Hf; [|inversion H1; subst; auto].
    destruct (e_rw e) as [|w]; [inversion H1; subst; auto|].
    match type of H1 with context [if Nat.eqb (pred (g_total g)) 0 then ?x else ?y] =>
      destruct (if Nat.eqb (pred (g_total g)) 0 then x else y) as [g2 ns2] eqn:E end.
    inversion H1; subst. clear H1.
    destruct (Nat.eqb (pred (g_total g)) 0) eqn:E0.
    2: { inversion E; subst. cbn [g_total] in Ht'. apply Nat.eqb_neq in E0. contradiction. }
    destruct (Nat.ltb 0 (e_ro e)) eqn:E1.
    { exfalso. apply Nat.ltb_lt in E1. unfold notify_all_readers in E. inversion E; subst. cbn [set_wr g_exec] in Hn'.
      destruct (e_ro e); [lia|]. rewrite andb_false_r in Hn'. apply setv_not_nil in Hn'. contradiction. }
    match type of E with (if is_nil ?ex then _ else _) = _ => destruct (is_nil ex) eqn:E2 end.
    + eapply notify_some_J; eauto.
    + inversion E; subst. cbn [g_exec] in Hn'. rewrite Hn' in E2. discriminate.
  - (* woke_ro *)
    unfold woke_ro in H1. destruct ok; cbn [negb] in H1.
    + destruct (ok_readers pref g) eqn:Hok.
      * inversion H1; subst. rewrite leave_wr_exec in Hn'. cbn [set_exec g_exec] in Hn'. apply setv_not_nil in Hn'. contradiction.
      * inversion H1; subst. destruct (ok_readers_false _ Hok Ht') as [Hpt Hwn].
        destruct g' as [tot ex wr ww p]. cbn [g_ww g_exec] in *.
        change (Jbody (mkG tot ex wr (g_ww (mkG tot ex wr ww p)) p) A').
        eapply J_reader_behind_writer; eauto.
    + destruct (maybe_notify pref (leave_wr t g)) as [g2 ns2] eqn:E. inversion H1; subst.
      eapply maybe_notify_J; eauto.
  - (* woke_rw *)
    unfold woke_rw in H1. destruct ok; cbn [negb] in H1.
    + destruct (ok_writer t g) eqn:Hok.
      * inversion H1; subst. rewrite leave_ww_exec in Hn'. cbn [g_exec] in Hn'. apply setv_not_nil in Hn'. contradiction.
      * inversion H1; subst. destruct (ok_writer_false _ _ Hok Hn') as (h & x & r & Ew & Hh).
        destruct g' as [tot ex wr ww p]. cbn [g_ww g_wr g_exec] in *.
        change (Jbody (mkG tot ex (g_wr (mkG tot ex wr ww p)) ww p) A').
        eapply J_behind_head; eauto.
    + destruct (maybe_notify pref (leave_ww t g)) as [g2 ns2] eqn:E. inversion H1; subst.
      eapply maybe_notify_J; eauto.
Qed.


Lemma acts_upd_other : forall g L t l k, k <> t -> acts (mkS g (upd L t l)) k = l_act (L k).
Proof. intros g L t l k H. unfold acts, upd. cbn [s_l]. destruct (Nat.eqb k t) eqn:E; auto. apply Nat.eqb_eq in E. contradiction. Qed.

Lemma acts_upd_same : forall g L t l, acts (mkS g (upd L t l)) t = l_act l.
Proof. intros. unfold acts, upd. cbn [s_l]. rewrite Nat.eqb_refl. reflexivity. Qed.

Lemma J_init : J sys0.
Proof. intros _. unfold Jbody. cbn. destruct pref; [|split; auto]; intros k c H; discriminate. Qed.

Lemma J_step : forall s lab s' o, inv s -> J s -> sys_step pref s lab = Some (s', o) -> J s'.
Proof.
  intros s lab s' o Hinv HJ H.
  pose proof (inv_step pref s lab s' o Hinv H) as Hinv'.
  destruct Hinv as [Hm Hl]. destruct Hinv' as [Hm' _].
  destruct lab as [t op|t c|p]; cbn [sys_step] in H.
  3: { inversion H; subst; clear H. intros Hn. cbn [s_g set_pool g_exec] in Hn. exact (HJ Hn). }
  - (* begin: the tables are untouched; t is in no table *)
    destruct (begin_op op (s_l s t)) as [l'|] eqn:E; [|discriminate]. inversion H; subst; clear H.
    intros Hn. cbn [s_g] in *. specialize (HJ Hn).
    destruct (Hl t) as [_ _ Hwr Hww]. unfold begin_op in E.
    destruct (l_act (s_l s t)) eqn:Ha; try discriminate. unfold inwr in Hwr. unfold inww in Hww. rewrite Ha in Hwr, Hww.
    eapply J_mono with (t := t); [| | |exact HJ].
    + intros k Hk. apply acts_upd_other; auto.
    + intros Hc; congruence.
    + intros Hc; congruence.
  - destruct (step pref t c (s_g s) (s_l s t)) as [[[g' l'] o']|] eqn:E; [|discriminate]. inversion H; subst; clear H.
    intros Hn. cbn [s_g] in *.
    assert (Ho : forall k, k <> t -> acts (mkS g' (upd (s_l s) t l')) k = acts s k) by (intros; apply acts_upd_other; auto).
    destruct (Hl t) as [Hwf Hex Hwr Hww]. unfold inwr in Hwr. unfold inww in Hww.
    destruct (step_cases _ _ _ _ _ _ _ _ E) as [(ns & out & Ecs & Hp)|[[-> Ht]|[[-> (d & Ha & Ha')]|[-> (d & Ha & Ha')]]]].
    + eapply (J_cs t _ (s_g s) g' ns out (acts s)); eauto. destruct out; auto. rewrite acts_upd_same. exact Hp.
    + destruct Ht as [[Ha Ha']|[Ha Ha']]; rewrite Ha in Hwr, Hww;
        (eapply J_mono with (t := t); [exact Ho| | |apply HJ; auto]); try (intros Hc; congruence);
        intros _ _; exists Timed, false; rewrite acts_upd_same; exact Ha'.
    + rewrite Ha in Hwr, Hww. cbn [set_wr g_exec] in Hn. eapply J_wake_ro; eauto.
      exists d, true. rewrite acts_upd_same. exact Ha'.
    + rewrite Ha in Hwr, Hww. cbn [set_ww g_exec] in Hn. eapply J_wake_rw; eauto.
      exists d, true. rewrite acts_upd_same. exact Ha'.
Qed.

Theorem J_reachable : forall s, reachable pref s -> J s.
Proof.
  intros s H. induction H as [|s lab s' o Hr IH Hs]; [apply J_init|].
  eapply J_step; eauto. apply (inv_reachable pref); auto.
Qed.


(* ---- consequences ---- *)

Lemma run_cs_enabled : forall t g l,
  match l_act l with AIdle | AParkRO _ | AParkRW _ => False | _ => True end -> run_cs pref t g l <> None.
Proof.
  intros t g l H. unfold run_cs.
  assert (Hgen : forall x : gst * list tid * outcome,
            match Some x with
            | None => None
            | Some (g', ns, Done s) => let (l', r) := complete l s in Some (g', l', mkOut None true ns None r)
            | Some (g', ns, Parked a' k) => Some (g', keep l a', mkOut None true ns (Some k) None)
            | Some (g', ns, Call a' f) => Some (g', mkL a' (f :: l_stk l) (l_op l) (l_hro l) (l_hrw l), mkOut None true ns None None)
            end <> None).
  { intros [[g1 ns1] out1]. destruct out1; [destruct (complete l s)|..]; discriminate. }
  destruct (l_act l); try contradiction; cbn [cs]; apply Hgen.
Qed.

Lemma step_run_cs : forall t g l,
  match l_act l with AIdle | AParkRO _ | AParkRW _ => False | _ => True end -> step pref t CRun g l = run_cs pref t g l.
Proof. intros t g l H. unfold step. destruct (l_act l); try contradiction; reflexivity. Qed.

Lemma awake_reader_enabled : forall g t l c, linv g t l -> find t (g_wr g) = Some c ->
  (0 < c \/ exists d ok, l_act l = AWokeRO d ok) -> step pref t CRun g l <> None.
Proof.
  intros g t l c [Hwf Hex Hwr Hww] Hf Haw. unfold memk in Hwr. rewrite Hf in Hwr. unfold inwr in Hwr.
  destruct (l_act l) eqn:Ha; try discriminate.
  - destruct Haw as [Hc|(d0 & ok & Hk)]; [|discriminate]. unfold step. rewrite Ha, Hf. destruct c; [lia|discriminate].
  - rewrite step_run_cs by (rewrite Ha; exact I). apply run_cs_enabled. rewrite Ha. exact I.
Qed.

Lemma awake_writer_enabled : forall g t l c, linv g t l -> find t (g_ww g) = Some c ->
  (0 < c \/ exists d ok, l_act l = AWokeRW d ok) -> step pref t CRun g l <> None.
Proof.
  intros g t l c [Hwf Hex Hwr Hww] Hf Haw. unfold memk in Hww. rewrite Hf in Hww. unfold inww in Hww.
  destruct (l_act l) eqn:Ha; try discriminate.
  - destruct Haw as [Hc|(d0 & ok & Hk)]; [|discriminate]. unfold step. rewrite Ha, Hf. destruct c; [lia|discriminate].
  - rewrite step_run_cs by (rewrite Ha; exact I). apply run_cs_enabled. rewrite Ha. exact I.
Qed.

Lemma find_head : forall (l : list (tid * nat)) h c r, l = (h, c) :: r -> find h l = Some c.
Proof. intros l h c r ->. cbn [find]. rewrite Nat.eqb_refl. reflexivity. Qed.

(* rw_no_lost_wakeup: whenever nobody holds the lock and somebody waits, a waiting thread has an enabled transition
   (a notification is pending for it, or it already returned from Wait() and is about to re-check) *)
Theorem no_lost_wakeup : forall s, reachable pref s -> g_exec (s_g s) = [] ->
  (g_wr (s_g s) <> [] \/ g_ww (s_g s) <> []) ->
  exists t, (memk t (g_wr (s_g s)) = true \/ memk t (g_ww (s_g s)) = true) /\
            step pref t CRun (s_g s) (s_l s t) <> None.
Proof.
  intros s Hr Hn Hw. pose proof (J_reachable s Hr Hn) as HJ. destruct (inv_reachable pref s Hr) as [_ Hl].
  assert (Hrd : forall k c r, g_wr (s_g s) = (k, c) :: r -> all_awake (acts s) (g_wr (s_g s)) ->
                exists t, (memk t (g_wr (s_g s)) = true \/ memk t (g_ww (s_g s)) = true) /\ step pref t CRun (s_g s) (s_l s t) <> None).
  { intros k c r E Hall. exists k. pose proof (find_head _ _ _ _ E) as Hf. split; [left; eapply find_memk; eauto|].
    eapply awake_reader_enabled; [apply Hl|exact Hf|]. exact (Hall k c Hf). }
  assert (Hwt : forall k c r, g_ww (s_g s) = (k, c) :: r -> head_awake (acts s) (g_ww (s_g s)) ->
                exists t, (memk t (g_wr (s_g s)) = true \/ memk t (g_ww (s_g s)) = true) /\ step pref t CRun (s_g s) (s_l s t) <> None).
  { intros k c r E Hh. exists k. pose proof (find_head _ _ _ _ E) as Hf. split; [right; eapply find_memk; eauto|].
    eapply awake_writer_enabled; [apply Hl|exact Hf|]. rewrite E in Hh. exact Hh. }
  unfold Jbody in HJ. destruct pref.
  - destruct (g_ww (s_g s)) as [|[h c] r] eqn:Ew.
    + destruct (g_wr (s_g s)) as [|[k c] r] eqn:Er; [destruct Hw; contradiction|]. eapply Hrd; eauto.
    + eapply Hwt; eauto.
  - destruct HJ as [Hall Hhd]. destruct (g_wr (s_g s)) as [|[k c] r] eqn:Er.
    + destruct (g_ww (s_g s)) as [|[h c] r] eqn:Ew; [destruct Hw; contradiction|]. eapply Hwt; eauto.
    + eapply Hrd; eauto.
Qed.

(* a thread that holds the lock is never parked *)
Lemma holder_not_parked : forall g t l e, linv g t l -> find t (g_exec g) = Some e -> inwr l = false /\ inww l = false.
Proof.
  intros g t l e [Hwf Hex _ _] Hf. apply wf_ctl in Hwf. pose proof (waiting_holds_nothing l Hwf) as Hz.
  destruct (in_wr (l_act l) || in_ww (l_act l)) eqn:E; [|apply orb_false_elim in E; exact E].
  rewrite Hf in Hex. unfold exp_ent in Hex. rewrite (Hz eq_refl) in Hex. discriminate.
Qed.

(* rw_no_stranding (deadlock freedom among threads that use only this lock): if no transition is enabled at all although some
   thread is waiting, then the lock is held by a thread that is outside any call -- the waiters wait for a holder that has
   not released yet, never for a wake-up that got lost *)
Theorem no_stranding : forall s, reachable pref s ->
  (forall t c, step pref t c (s_g s) (s_l s t) = None) ->
  (g_wr (s_g s) <> [] \/ g_ww (s_g s) <> []) ->
  exists h e, find h (g_exec (s_g s)) = Some e /\ l_act (s_l s h) = AIdle.
Proof.
  intros s Hr Hstuck Hw. destruct (g_exec (s_g s)) as [|[h e] r] eqn:Ex.
  - destruct (no_lost_wakeup s Hr Ex Hw) as (t & _ & Hen). exfalso. apply Hen. apply Hstuck.
  - exists h, e. assert (Hf : find h (g_exec (s_g s)) = Some e) by (rewrite Ex; cbn [find]; rewrite Nat.eqb_refl; reflexivity).
    rewrite <- Ex. split; [exact Hf|].
    destruct (inv_reachable pref s Hr) as [_ Hl]. destruct (holder_not_parked _ _ _ _ (Hl h) Hf) as [H1 H2].
    unfold inwr in H1. unfold inww in H2.
    assert (Hen : forall a, l_act (s_l s h) = a -> match a with AIdle | AParkRO _ | AParkRW _ => False | _ => True end -> False).
    { intros a Ha Hma. apply (run_cs_enabled h (s_g s) (s_l s h)); [rewrite Ha; exact Hma|].
      rewrite <- step_run_cs by (rewrite Ha; exact Hma). apply Hstuck. }
    destruct (l_act (s_l s h)) eqn:Ha; auto; try discriminate; exfalso; (eapply Hen; [reflexivity|exact I]).
Qed.

(* rw_writer_pref: with writer preference on, a thread that holds nothing becomes a reader only when no writer is waiting;
   rw_writer_fifo: a thread that holds nothing becomes a writer only when nobody executes and it is the first waiting writer
   (or none waits) *)
Theorem admission : forall t g l g' l' o e,
  step pref t CRun g l = Some (g', l', o) -> find t (g_exec g) = None -> find t (g_exec g') = Some e ->
  (e = mkEnt 1 0 /\ g_total g = 0 /\ (pref = true -> g_ww g = [])) \/
  (e = mkEnt 0 1 /\ g_exec g = [] /\ (g_ww g = [] \/ exists c r, g_ww g = (t, c) :: r)).
Proof.
  intros t g l g' l' o e H Hf Hf'.
  assert (Hrd : ok_readers pref g = true -> g_total g = 0 /\ (pref = true -> g_ww g = [])).
  { unfold ok_readers. intros Hok. apply andb_prop in Hok. destruct Hok as [H1 H2]. apply Nat.eqb_eq in H1. split; auto.
    intros ->. cbn [negb orb] in H2. apply is_nil_true in H2. auto. }
  assert (Hwt : ok_writer t g = true -> g_exec g = [] /\ (g_ww g = [] \/ exists c r, g_ww g = (t, c) :: r)).
  { unfold ok_writer. intros Hok. apply andb_prop in Hok. destruct Hok as [H1 H2]. apply is_nil_true in H1. split; auto.
    destruct (g_ww g) as [|[h c] r]; auto. apply Nat.eqb_eq in H2. subst h. right. eauto. }
  destruct (step_cases _ _ _ _ _ _ _ _ H) as [(ns & out & E & _)|[[-> _]|[[-> _]|[-> _]]]]; [|cbn in Hf'; congruence..].
  destruct (cs_shape _ _ _ _ _ _ _ E) as (g1 & g2 & U & L & N).
  assert (Hx : g_exec g' = g_exec g1).
  { rewrite (ss_exec _ _ (notified_shape _ _ N)). destruct L as [->|[[->| ->] _]]; auto using leave_wr_exec, leave_ww_exec. }
  rewrite Hx in Hf'.
  destruct U as [| tot x y p e0 He0 _ _ | p Hok | p Hok | c p _ | c p _]; cbn [g_exec] in Hf'; try congruence;
    rewrite find_setv_same in Hf'; injection Hf' as <-; [left | right]; auto.
Qed.

End P.
