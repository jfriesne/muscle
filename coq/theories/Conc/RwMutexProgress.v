(* C18 -- a free lock with waiters is never a dead end: within at most two transitions of one waiting thread, that thread holds
   the lock or has left the queue (its timeout had fired). *)
From Coq Require Import List Arith Bool Lia.
Import ListNotations.
From Muscle Require Import Conc.RwMutexModel Conc.RwMutexProofs Conc.RwMutexInv Conc.RwMutexThms Conc.RwMutexLive Conc.RwMutexExtras.

Definition nwait (g : gst) : nat := length (g_wr g) + length (g_ww g).

Lemma length_remove_le : forall A t (l : list (tid * A)), length (remove t l) <= length l.
Proof. induction l as [|[k w] r IH]; cbn [remove length]; auto. destruct (Nat.eqb k t); cbn [length]; lia. Qed.

Lemma length_remove_lt : forall A t (l : list (tid * A)), memk t l = true -> length (remove t l) < length l.
Proof.
  induction l as [|[k w] r IH]; unfold memk; cbn [find remove length]; [discriminate|].
  destruct (Nat.eqb k t) eqn:E; intros H.
  - pose proof (length_remove_le A t r). lia.
  - cbn [length]. apply IH in H. lia.
Qed.

Lemma nwait_all_readers : forall g, nwait (fst (notify_all_readers g)) = nwait g.
Proof. intros g. unfold notify_all_readers, nwait. cbn [fst set_wr g_wr g_ww]. rewrite map_length. reflexivity. Qed.

Lemma nwait_next_writer : forall g, nwait (fst (notify_next_writer g)) = nwait g.
Proof. intros g. unfold notify_next_writer, nwait. destruct (g_ww g) as [|[t c] r] eqn:E; cbn [fst set_ww g_wr g_ww]; rewrite ?E; reflexivity. Qed.

Section P.
Variable pref : bool.

Lemma nwait_maybe : forall g, nwait (fst (maybe_notify pref g)) = nwait g.
Proof.
  intros g. destruct (maybe_notify_cases pref g) as [->|[->| ->]]; auto using nwait_all_readers, nwait_next_writer.
Qed.

Lemma one_step_reachable : forall s t c g' l' o, reachable pref s -> step pref t c (s_g s) (s_l s t) = Some (g', l', o) ->
  reachable pref (mkS g' (upd (s_l s) t l')) /\ run pref [LStep t c] s = Some (mkS g' (upd (s_l s) t l')).
Proof.
  intros s t c g' l' o Hr E.
  assert (Hs : sys_step pref s (LStep t c) = Some (mkS g' (upd (s_l s) t l'), o)) by (cbn [sys_step]; rewrite E; reflexivity).
  split; [eapply reach_step; eauto|]. cbn [run]. rewrite Hs. reflexivity.
Qed.

Lemma upd_same : forall L t l, upd L t l t = l.
Proof. intros. unfold upd. rewrite Nat.eqb_refl. reflexivity. Qed.

(* the favoured writer *)
Lemma writer_progress : forall s, reachable pref s -> g_exec (s_g s) = [] ->
  forall h c r, g_ww (s_g s) = (h, c) :: r -> awake_w (acts s) h c ->
  exists s', (run pref [R h] s = Some s' \/ run pref [R h; R h] s = Some s') /\
             (find h (g_exec (s_g s')) <> None \/ nwait (s_g s') < nwait (s_g s)).
Proof.
  intros s Hr Hn h c r Ew Haw. destruct (inv_reachable pref s Hr) as [Hm Hl]. destruct (Hl h) as [Hwf Hex Hwr Hww].
  assert (Hmem : memk h (g_ww (s_g s)) = true) by (eapply head_memk; eauto).
  rewrite Hmem in Hww. unfold inww in Hww.
  destruct (l_act (s_l s h)) eqn:Ha; try discriminate.
  - (* parked with a pending notification: Wait() returns, then the critical section admits it *)
    destruct Haw as [Hc|(d0 & ok0 & Hk)]; [|unfold acts in Hk; rewrite Ha in Hk; discriminate].
    assert (E1 : step pref h CRun (s_g s) (s_l s h) = Some (set_ww (s_g s) (setc h 0 (g_ww (s_g s))), keep (s_l s h) (AWokeRW d true), wake_out true)).
    { unfold step. rewrite Ha. rewrite (find_head _ _ _ _ Ew). destruct c; [lia|reflexivity]. }
    destruct (one_step_reachable _ _ _ _ _ _ Hr E1) as [Hr1 Hrun1].
    set (s1 := mkS (set_ww (s_g s) (setc h 0 (g_ww (s_g s)))) (upd (s_l s) h (keep (s_l s h) (AWokeRW d true)))) in *.
    destruct (setc_head h 0 _ h c r Ew) as (x' & r' & Hs & _ & _).
    destruct (handoff_admits_writer pref s1 Hr1 Hn h x' r' d) as (g2 & l2 & o2 & E2 & Hf2 & _).
    { unfold s1. cbn [s_g set_ww g_ww]. exact Hs. }
    { unfold s1. cbn [s_l]. rewrite upd_same. reflexivity. }
    exists (mkS g2 (upd (s_l s1) h l2)). split.
    + right. change [R h; R h] with ([R h] ++ [R h]). unfold R in *. cbn [run app] in *.
      destruct (sys_step pref s (LStep h CRun)) as [[sa oa]|]; [|discriminate]. inversion Hrun1; subst sa.
      cbn [sys_step]. rewrite E2. reflexivity.
    + left. cbn [s_g]. rewrite Hf2. discriminate.
  - destruct ok.
    + (* already woken by a notification: admitted *)
      destruct (handoff_admits_writer pref s Hr Hn h c r d Ew Ha) as (g2 & l2 & o2 & E2 & Hf2 & _).
      exists (mkS g2 (upd (s_l s) h l2)). split.
      * left. apply (one_step_reachable _ _ _ _ _ _ Hr E2).
      * left. cbn [s_g]. rewrite Hf2. discriminate.
    + (* its timeout had fired: it leaves the queue (and passes the wake-up on) *)
      assert (E2 : exists g2 l2 o2, step pref h CRun (s_g s) (s_l s h) = Some (g2, l2, o2) /\ nwait g2 < nwait (s_g s)).
      { unfold step, run_cs. rewrite Ha. cbn [cs]. unfold woke_rw. cbn [negb].
        destruct (maybe_notify pref (leave_ww h (s_g s))) as [g2 ns2] eqn:E. destruct (complete (s_l s h) STimedOut) as [l2 r2].
        do 3 eexists. split; [reflexivity|].
        pose proof (nwait_maybe (leave_ww h (s_g s))) as Hnw. rewrite E in Hnw. cbn [fst] in Hnw. rewrite Hnw.
        unfold leave_ww. destruct (find h (g_ww (s_g s))) eqn:Ef; [|unfold memk in Hmem; rewrite Ef in Hmem; discriminate].
        unfold nwait. cbn [g_wr g_ww]. pose proof (length_remove_lt _ h _ Hmem). lia. }
      destruct E2 as (g2 & l2 & o2 & E2 & Hlt).
      exists (mkS g2 (upd (s_l s) h l2)). split; [left; apply (one_step_reachable _ _ _ _ _ _ Hr E2)|right; exact Hlt].
Qed.

(* a favoured reader *)
Lemma reader_progress : forall s, reachable pref s -> g_exec (s_g s) = [] -> (pref = true -> g_ww (s_g s) = []) ->
  forall k c, find k (g_wr (s_g s)) = Some c -> awake_r (acts s) k c ->
  exists s', (run pref [R k] s = Some s' \/ run pref [R k; R k] s = Some s') /\
             (find k (g_exec (s_g s')) <> None \/ nwait (s_g s') < nwait (s_g s)).
Proof.
  intros s Hr Hn Hp k c Ef Haw. destruct (inv_reachable pref s Hr) as [Hm Hl]. destruct (Hl k) as [Hwf Hex Hwr Hww].
  assert (Hmem : memk k (g_wr (s_g s)) = true) by (eapply find_memk; eauto).
  rewrite Hmem in Hwr. unfold inwr in Hwr.
  destruct (l_act (s_l s k)) eqn:Ha; try discriminate.
  - destruct Haw as [Hc|(d0 & ok0 & Hk)]; [|unfold acts in Hk; rewrite Ha in Hk; discriminate].
    assert (E1 : step pref k CRun (s_g s) (s_l s k) = Some (set_wr (s_g s) (setc k 0 (g_wr (s_g s))), keep (s_l s k) (AWokeRO d true), wake_out true)).
    { unfold step. rewrite Ha, Ef. destruct c; [lia|reflexivity]. }
    destruct (one_step_reachable _ _ _ _ _ _ Hr E1) as [Hr1 Hrun1].
    set (s1 := mkS (set_wr (s_g s) (setc k 0 (g_wr (s_g s)))) (upd (s_l s) k (keep (s_l s k) (AWokeRO d true)))) in *.
    destruct (handoff_admits_reader pref s1 Hr1 Hn Hp k d) as (g2 & l2 & o2 & E2 & Hf2 & _).
    { unfold s1. cbn [s_l]. rewrite upd_same. reflexivity. }
    exists (mkS g2 (upd (s_l s1) k l2)). split.
    + right. unfold R in *. cbn [run] in *.
      destruct (sys_step pref s (LStep k CRun)) as [[sa oa]|]; [|discriminate]. inversion Hrun1; subst sa.
      cbn [sys_step]. rewrite E2. reflexivity.
    + left. cbn [s_g]. rewrite Hf2. discriminate.
  - destruct ok.
    + destruct (handoff_admits_reader pref s Hr Hn Hp k d Ha) as (g2 & l2 & o2 & E2 & Hf2 & _).
      exists (mkS g2 (upd (s_l s) k l2)). split.
      * left. apply (one_step_reachable _ _ _ _ _ _ Hr E2).
      * left. cbn [s_g]. rewrite Hf2. discriminate.
    + assert (E2 : exists g2 l2 o2, step pref k CRun (s_g s) (s_l s k) = Some (g2, l2, o2) /\ nwait g2 < nwait (s_g s)).
      { unfold step, run_cs. rewrite Ha. cbn [cs]. unfold woke_ro. cbn [negb].
        destruct (maybe_notify pref (leave_wr k (s_g s))) as [g2 ns2] eqn:E. destruct (complete (s_l s k) STimedOut) as [l2 r2].
        do 3 eexists. split; [reflexivity|].
        pose proof (nwait_maybe (leave_wr k (s_g s))) as Hnw. rewrite E in Hnw. cbn [fst] in Hnw. rewrite Hnw.
        unfold leave_wr. rewrite Ef. unfold nwait. cbn [g_wr g_ww]. pose proof (length_remove_lt _ k _ Hmem). lia. }
      destruct E2 as (g2 & l2 & o2 & E2 & Hlt).
      exists (mkS g2 (upd (s_l s) k l2)). split; [left; apply (one_step_reachable _ _ _ _ _ _ Hr E2)|right; exact Hlt].
Qed.

End P.

(* a free lock with waiters is never a dead end *)
Theorem free_lock_progress : forall pref s, reachable pref s -> g_exec (s_g s) = [] ->
  (g_wr (s_g s) <> [] \/ g_ww (s_g s) <> []) ->
  exists t s', (run pref [R t] s = Some s' \/ run pref [R t; R t] s = Some s') /\
               (find t (g_exec (s_g s')) <> None \/ nwait (s_g s') < nwait (s_g s)).
Proof.
  intros pref s Hr Hn Hw. pose proof (J_reachable pref s Hr Hn) as HJ. unfold Jbody in HJ.
  destruct pref.
  - destruct (g_ww (s_g s)) as [|[h c] r] eqn:Ew.
    + destruct (g_wr (s_g s)) as [|[k c] r] eqn:Er; [destruct Hw; contradiction|].
      assert (Hf : find k (g_wr (s_g s)) = Some c) by (eapply find_head; eauto).
      destruct (reader_progress _ s Hr Hn (fun _ => Ew) k c Hf) as (s' & H1 & H2); [apply HJ; cbn [find]; rewrite Nat.eqb_refl; reflexivity|].
      exists k, s'. auto.
    + destruct (writer_progress _ s Hr Hn h c r Ew HJ) as (s' & H1 & H2). exists h, s'. auto.
  - destruct HJ as [Hall Hhd]. destruct (g_wr (s_g s)) as [|[k c] r] eqn:Er.
    + destruct (g_ww (s_g s)) as [|[h c] r] eqn:Ew; [destruct Hw; contradiction|].
      destruct (writer_progress _ s Hr Hn h c r Ew (Hhd eq_refl)) as (s' & H1 & H2). exists h, s'. auto.
    + assert (Hf : find k (g_wr (s_g s)) = Some c) by (eapply find_head; eauto).
      destruct (reader_progress _ s Hr Hn (fun Hc => ltac:(discriminate)) k c Hf) as (s' & H1 & H2); [apply Hall; cbn [find]; rewrite Nat.eqb_refl; reflexivity|].
      exists k, s'. auto.
Qed.

