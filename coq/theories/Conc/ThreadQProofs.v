(* C11 -- the theorems about the Thread messaging LTS (Conc/ThreadQ.v), from the invariants of ThreadQWf / ThreadQWake. *)
From Coq Require Import List Arith Bool Lia NArith.
From Muscle Require Import Conc.ThreadQ Conc.ThreadQWf Conc.ThreadQWake.
Import ListNotations.

(* the program counters at which a thread can be blocked *)
Definition blocked (g : gst) (l : local) : bool :=
  match l_pc l with
  | PRecvPark x _ => negb (wakeable g x)
  | PIEvWait => negb (readable g CI)
  | PJoinWait => match g_ist g with IExited => false | _ => true end
  | PIdle | PIDone => true
  | _ => false
  end.

Lemma readable_wakeable : forall g x, readable g x = true -> wakeable g x = true.
Proof. intros g x H. unfold wakeable. rewrite H. reflexivity. Qed.

Lemma wakeable_CI : forall g, wakeable g CI = readable g CI.
Proof. intros g. unfold wakeable. apply orb_false_r. Qed.

Section Enabled.
Variable early : bool.
Variable absorb_n : nat.
Variable no_limit : N.
Variable react : nat -> list (chanid * msg) * bool.

Lemma fin_some : forall g r k e, exists x, fin react g r k e = Some x.
Proof. intros. unfold fin. destruct (ret react (g_evd g) r k) as [[p k'] e']. eauto. Qed.

Lemma step_enabled : forall g l, blocked g l = false -> exists x, step early absorb_n no_limit react CRun g l = Some x.
Proof.
  intros g [p k] Hb. unfold blocked in Hb. simpl in Hb. unfold step. simpl.
  destruct p; try discriminate; unfold goto;
    try (apply negb_false_iff in Hb; rewrite Hb);
    repeat match goal with
    | |- exists x, (match ?y with _ => _ end) = Some x => destruct y eqn:?
    | |- exists x, (if ?y then _ else _) = Some x => destruct y eqn:?
    | |- exists x, (let (_, _) := ?y in _) = Some x => destruct y eqn:?
    end; eauto using fin_some; try discriminate.
Qed.

End Enabled.

(* the owner is inside ShutdownInternalThread(true), the NULL Message already appended *)
Definition sh_wait (l : local) : bool :=
  match l_pc l, l_k l with
  | PSendSig CI _, [KShutdown true] => true
  | PJoinTest, [KDiscard] | PJoinWait, [KDiscard] => true
  | _, _ => false
  end.

(* the internal thread has removed a NULL Message and is on its way out *)
Definition exiting (p : pc) : bool :=
  match p with PRecvGot CI None _ | PIExit => true | _ => false end.

Definition S_inv (s : sys) : Prop :=
  sh_wait (s_l s 0) = true ->
  In None (c_q (g_ci (s_g s))) \/ g_ist (s_g s) = IExited \/ (g_ist (s_g s) = ILive /\ exiting (l_pc (g_il (s_g s))) = true).

Section Shutdown.
Variable absorb_n : nat.
Variable no_limit : N.
Variable react : nat -> list (chanid * msg) * bool.
Variable ok : label -> bool.
Variables smode emode : bool.

(* StartInternalThread as repaired: [early] = false, here and in the sections Theorems, Final and UserSocket *)
Notation Step := (Step false absorb_n no_limit react).
Notation sys_step := (sys_step false absorb_n no_limit react).
Notation reachable_if := (reachable_if false absorb_n no_limit react).

Lemma int_step_null : forall {c g l g' l' ev}, g_ist g = ILive -> ipc_ok l -> Step c g l g' l' ev ->
  In None (c_q (g_ci g)) \/ exiting (l_pc l) = true ->
  g_ist g' = IExited \/ (g_ist g' = ILive /\ (In None (c_q (g_ci g')) \/ exiting (l_pc l') = true)).
Proof.
  intros c g [p k] g' l' ev Hl Hi Hst Hn.
  destruct (Step_running _ _ _ _ Hst) as [[n E] | [E | [E | (_ & R2 & _)]]];
    try (simpl in E; subst p); [destruct Hi | destruct Hi | inversion Hst; subst; left; reflexivity |].
  right. split; [congruence|]. destruct Hn as [A | B].
  - destruct (Step_queues _ _ _ _ Hst CI) as [(Q & _) | [(m & _ & E) | (w & m & r & Ep & Eq & E)]];
      simpl in *.
    + left. rewrite Q. exact A.
    + left. rewrite E. simpl. apply in_or_app. left. exact A.
    + rewrite E. simpl. rewrite Eq in A. destruct A as [-> | A]; [right | left; exact A].
      subst p. inversion Hst; subst; simpl in *; [congruence|].
      match goal with Hq : c_q _ = _ :: _ |- _ => rewrite Eq in Hq; inv Hq end. reflexivity.
  - simpl in B. destruct p; try discriminate.
    + destruct c0; try discriminate. destruct m; try discriminate.
      unfold ipc_ok in Hi. simpl in Hi. destr_k k. inversion Hst; subst. kill_ret. right. reflexivity.
    + inversion Hst; subst. simpl in R2. congruence.
Qed.

(* the owner comes to wait for the shutdown by appending the NULL Message; from then on it only signals and joins *)
Lemma sh_wait_step : forall c g p k g' l' ev, upc_ok 0 (mkL p k) -> Step c g (mkL p k) g' l' ev ->
  sh_wait l' = true -> p = PSendCS CI None \/ (sh_wait (mkL p k) = true /\ life_pc p = false).
Proof.
  intros c g p k g' l' ev Hu Hst Hw.
  inv_user Hst Hu; unfold sh_wait in *; simpl in *; try discriminate Hw; auto.
Qed.

Lemma S_init : S_inv (sys0 smode emode).
Proof. intros H. discriminate. Qed.

Lemma S_step : forall s lab s' ev, wf smode emode s -> S_inv s -> sys_step s lab = Some (s', ev) -> S_inv s'.
Proof.
  intros s lab s' ev W Sv H.
  destruct (sys_step_spec _ _ _ _ H) as [t o Hp Hk Ha | t c g' l' e' Hst | c g' l' e' Hl Hst]; clear H.
  - (* begin *)
    unfold S_inv in *. simpl. unfold upd. destruct (Nat.eqb_spec 0 t) as [<- | Ht].
    + unfold sh_wait. simpl. destruct (pc_of_op o); try discriminate; destruct c; discriminate.
    + exact Sv.
  - (* a user thread's step *)
    destruct (s_l s t) as [p k] eqn:El.
    assert (Hu : upc_ok t (mkL p k)) by (rewrite <- El; apply (wf_upc _ _ _ W)).
    unfold S_inv in *. simpl.
    (* a step that is not the append of the NULL Message leaves the thread alone and its queue at least as long *)
    assert (Carry : life_pc p = false -> sh_wait (s_l s 0) = true ->
                    In None (c_q (g_ci g')) \/ g_ist g' = IExited \/ g_ist g' = ILive /\ exiting (l_pc (g_il g')) = true).
    { intros Lp Hw. destruct (user_step_ci _ _ _ Hu Lp Hst) as (I1 & I2 & _ & _ & Hq). rewrite I1, I2.
      destruct (Sv Hw) as [Hin | Hx]; [left | right; exact Hx].
      destruct Hq as [-> | (m & _ & ->)]; [exact Hin | apply in_or_app; left; exact Hin]. }
    unfold upd. destruct (Nat.eqb_spec 0 t) as [<- | Ht]; intros Hw.
    + destruct (sh_wait_step _ _ _ _ _ _ _ Hu Hst Hw) as [-> | [Sw Lp]]; [|apply Carry; [exact Lp | rewrite El; exact Sw]].
      inversion Hst; subst. left. simpl. apply in_or_app. right. left. reflexivity.
    + apply Carry; [|exact Hw].
      destruct (life_pc p) eqn:Lp; [|reflexivity]. exfalso. apply Ht. symmetry. exact (upc_life _ _ Hu Lp).
  - (* the internal thread's step *)
    destruct (g_il (s_g s)) as [p k] eqn:El.
    assert (Hi : ipc_ok (mkL p k)) by (rewrite <- El; apply (wf_ipc _ _ _ W); exact Hl).
    unfold S_inv in *. simpl. intros Hw. specialize (Sv Hw).
    assert (Sv' : In None (c_q (g_ci (s_g s))) \/ exiting p = true).
    { destruct Sv as [A | [B | [_ C]]]; [left; exact A | congruence | right; rewrite El in C; exact C]. }
    destruct (int_step_null Hl Hi Hst Sv') as [Hx | [Hl' [A | B]]]; auto.
Qed.

Theorem reachable_S : forall s, reachable_if ok smode emode s -> S_inv s.
Proof.
  intros s H. induction H.
  - apply S_init.
  - eapply S_step; eauto. eapply reachable_wf; eauto.
Qed.

End Shutdown.

(* the pending-notification counts are uint32 values: they saturate, they never wrap *)

Definition wcb (nl : N) (g : gst) : Prop := forall c, (c_wc (ch g c) <= nl)%N.

Lemma wc_inc_bound : forall old, (old <= 4294967295)%N -> (wc_inc 4294967295 old <= 4294967295)%N.
Proof.
  intros old H. unfold wc_inc.
  destruct (N.ltb_spec old ((old + 1) mod 4294967296)); [|lia].
  assert ((old + 1) mod 4294967296 < 4294967296)%N by (apply N.mod_lt; lia). lia.
Qed.

Section WcBound.
Variable early : bool.
Variable absorb_n : nat.
Variable react : nat -> list (chanid * msg) * bool.
Variable ok : label -> bool.
Variables smode emode : bool.
Notation NL := 4294967295%N.

Lemma signal_wcb : forall c g g' e, signal NL c g = (g', e) -> wcb NL g -> wcb NL g'.
Proof.
  intros c g g' e H B. unfold signal in H.
  destruct (g_sockets g); [destruct c; [destruct (g_alloc g); [destruct (g_iopen g)|] | destruct (g_alloc g && g_iopen g)]|];
    inv H; auto; intros c'; specialize (B c'); try (destruct c'; simpl; exact B).
  destruct c, c'; simpl in *; auto; apply wc_inc_bound; exact B.
Qed.

Lemma Step_wcb : forall c g l g' l' ev, Step early absorb_n NL react c g l g' l' ev -> wcb NL g -> wcb NL g'.
Proof.
  intros c g l g' l' ev HS B. inversion HS; subst; clear HS; auto;
    try (eapply signal_wcb; eauto; fail);
    intros c'; specialize (B c');
    try (destruct x, c'; simpl in *; try exact B; lia);
    try (unfold park_flags; repeat match goal with y : chanid |- _ => destruct y end; try destruct (u_reg (g_usr g)); simpl in *; exact B);
    try (match goal with Hu : user_step _ _ = _ |- _ => apply user_step_frame in Hu; destruct Hu as [? ->] end; destruct c'; simpl in *; exact B).
  - pose proof (absorb_frame absorb_n x g) as F. simpl in F. destruct F as (_&_&_&_&_&_&_&_&F&_).
    destruct (F c') as (_ & _ & _ & Q). rewrite Q. exact B.
  - pose proof (alloc_frame g) as F. simpl in F. destruct F as (_&_&_&_&_&_&F).
    destruct (F c') as (_ & _ & _ & Q). unfold spawned. destruct c'; simpl in *; rewrite Q; exact B.
  - pose proof (close_frame g) as F. simpl in F. destruct F as (_&_&_&_&_&_&F).
    destruct (F c') as (_ & _ & _ & Q). unfold joined. destruct c'; simpl in *; rewrite Q; exact B.
  - pose proof (alloc_frame g) as F. simpl in F. destruct F as (_&_&_&_&_&_&F).
    destruct (F c') as (_ & _ & _ & Q). rewrite Q. exact B.
  - unfold exited. destruct c'; simpl; destruct (g_sockets g); simpl; exact B.
Qed.

Theorem notification_counts_are_uint32 : forall s, reachable_if early absorb_n NL react ok smode emode s -> wcb NL (s_g s).
Proof.
  intros s H. induction H.
  - intros []; simpl; lia.
  - destruct (sys_step_spec _ _ _ _ H1) as [t o _ _ _ | t c g' l' e' Hst | c g' l' e' _ Hst]; simpl.
    + exact IHreachable_if.
    + eapply Step_wcb; eauto.
    + apply Step_wcb in Hst; [|exact IHreachable_if].
      intros c'. specialize (Hst c'). destruct c'; exact Hst.
Qed.

End WcBound.

Section Multi.
Variable early : bool.
Variable absorb_n : nat.
Variable no_limit : N.
Variable react : nat -> list (chanid * msg) * bool.
Variable ok : label -> bool.
Variables smode emode : bool.

Notation sys_step := (sys_step early absorb_n no_limit react).
Notation reachable_if := (reachable_if early absorb_n no_limit react).

Inductive steps_if : sys -> sys -> Prop :=
| steps_refl : forall s, steps_if s s
| steps_cons : forall s lab s' ev s'', ok lab = true -> sys_step s lab = Some (s', ev) -> steps_if s' s'' -> steps_if s s''.

Lemma steps_reachable : forall s s', steps_if s s' -> reachable_if ok smode emode s -> reachable_if ok smode emode s'.
Proof. intros s s' H. induction H; intros R; auto. apply IHsteps_if. eapply reach_step; eauto. Qed.

Lemma hist_ext_refl : forall g, hist_ext g g.
Proof. intros g c. exists [], []. rewrite !app_nil_r. auto. Qed.

Lemma hist_ext_trans : forall a b c, hist_ext a b -> hist_ext b c -> hist_ext a c.
Proof.
  intros a b c H1 H2 x. destruct (H1 x) as (u1 & v1 & E1 & F1). destruct (H2 x) as (u2 & v2 & E2 & F2).
  exists (u1 ++ u2), (v1 ++ v2). rewrite E2, E1, F2, F1, !app_assoc. auto.
Qed.

Lemma steps_hist : forall s s', steps_if s s' -> hist_ext (s_g s) (s_g s').
Proof.
  intros s s' H. induction H.
  - apply hist_ext_refl.
  - eapply hist_ext_trans; [|exact IHsteps_if]. eapply sys_step_hist; eauto.
Qed.

(* Exactly once and in order, over any stretch of execution: what is received during it is -- in this order -- what was
   queued at its beginning followed by what was appended during it; nothing else, nothing twice, nothing overtaken. *)
Theorem fifo_no_overtaking : forall s s' c,
  reachable_if ok smode emode s -> steps_if s s' ->
  exists got more,
    c_rcvd (ch (s_g s') c) = c_rcvd (ch (s_g s) c) ++ got /\
    c_sent (ch (s_g s') c) = c_sent (ch (s_g s) c) ++ more /\
    got ++ c_q (ch (s_g s') c) = c_q (ch (s_g s) c) ++ more.
Proof.
  intros s s' c R St.
  pose proof (reachable_fifo _ _ _ _ _ _ _ _ R c) as F.
  pose proof (reachable_fifo _ _ _ _ _ _ _ _ (steps_reachable _ _ St R) c) as F'.
  destruct (steps_hist _ _ St c) as (a & b & Ea & Eb).
  exists b, a. repeat split; auto.
  rewrite Ea, Eb, F in F'. rewrite <- !app_assoc in F'. apply app_inv_head in F'. auto.
Qed.

End Multi.

Definition J_inv (s : sys) : Prop := l_pc (s_l s 0) = PJoinWait -> g_running (s_g s) = true.

Section Theorems.
Variable absorb_n : nat.
Variable no_limit : N.
Variable react : nat -> list (chanid * msg) * bool.
Hypothesis Hnl : (0 < no_limit)%N.
Variable ok : label -> bool.
Variables smode emode : bool.

Notation sys_step := (sys_step false absorb_n no_limit react).
Notation reachable_if := (reachable_if false absorb_n no_limit react).
Notation R := (reachable_if ok smode emode).

Lemma int_enabled : forall s, g_ist (s_g s) = ILive -> blocked (s_g s) (g_il (s_g s)) = false ->
  exists x, sys_step s (LStep I CRun) = Some x.
Proof.
  intros s Hl Hb. simpl. rewrite Hl. destruct (step_enabled false absorb_n no_limit react _ _ Hb) as [[[g' l'] e] Hx]. rewrite Hx. eauto.
Qed.

Lemma user_enabled : forall s t, blocked (s_g s) (s_l s t) = false -> exists x, sys_step s (LStep (U t) CRun) = Some x.
Proof.
  intros s t Hb. simpl. destruct (step_enabled false absorb_n no_limit react _ _ Hb) as [[[g' l'] e] Hx]. rewrite Hx. eauto.
Qed.

Lemma blocked_int : forall g l, ipc_ok l -> blocked g l = true ->
  will_look (g_evd g) (l_pc l) = false /\ readable g CI = false.
Proof.
  intros g [p k] Hi Hb. unfold ipc_ok in Hi. unfold blocked in Hb. simpl in *.
  destruct p; try discriminate; try contradiction.
  all: try (destruct c); try (destruct k as [|[] [|? ?]]); try contradiction;
    apply negb_true_iff in Hb; rewrite ?wakeable_CI in Hb; split; [reflexivity | exact Hb].
Qed.

Lemma pend_i_unblocked : forall g l, is_pend_i (l_pc l) = true -> blocked g l = false.
Proof. intros g [p k] H. unfold blocked. simpl in *. destruct p; try discriminate; reflexivity. Qed.

Lemma pend_o_unblocked : forall g l, is_pend_o (l_pc l) = true -> blocked g l = false.
Proof. intros g [p k] H. unfold blocked. simpl in *. destruct p; try discriminate; reflexivity. Qed.

(* No lost wake-up, internal thread: blocked (in WaitForNextMessageFromOwner or in its event loop) with a non-empty
   queue, its wait is already satisfiable or a thread still owes it the signal. *)
Theorem no_lost_wakeup_internal : forall s,
  R s -> g_ist (s_g s) = ILive ->
  (exists w, l_pc (g_il (s_g s)) = PRecvPark CI w) \/ l_pc (g_il (s_g s)) = PIEvWait ->
  c_q (g_ci (s_g s)) <> [] ->
  readable (s_g s) CI = true \/ exists t, is_pend_i (l_pc (s_l s t)) = true.
Proof.
  intros s Rs Hl Hp Hq. pose proof (reachable_wake absorb_n no_limit react Hnl ok smode emode s Rs) as Wk.
  apply (wk_ai _ Wk); auto. destruct Hp as [[w ->] | ->]; reflexivity.
Qed.

(* No lost wake-up, owner: blocked in GetNextReplyFromInternalThread with a non-empty reply queue, its wait is already
   satisfiable (signal bytes, end-of-file, notifications) or a sender still owes it the signal. *)
Theorem no_lost_wakeup_owner : forall s w,
  R s -> l_pc (s_l s 0) = PRecvPark CO w -> c_q (g_co (s_g s)) <> [] ->
  readable (s_g s) CO = true \/ (exists t, l_pc (s_l s t) = PSendSig CO true) \/
  (g_ist (s_g s) = ILive /\ l_pc (g_il (s_g s)) = PSendSig CO true).
Proof.
  intros s w Rs Hp Hq. pose proof (reachable_wake absorb_n no_limit react Hnl ok smode emode s Rs) as Wk.
  assert (P : parked_o s = true) by (unfold parked_o; rewrite Hp; reflexivity).
  destruct (wk_ao _ Wk P Hq) as [A | [[t B] | [C D]]]; auto.
  - right. left. exists t. apply is_pend_o_inv. exact B.
  - right. right. split; auto. apply is_pend_o_inv. exact D.
Qed.

(* no_lost_wakeup_internal for any place at which the internal thread is blocked *)
Lemma blocked_token : forall s, R s -> g_ist (s_g s) = ILive -> c_q (g_ci (s_g s)) <> [] ->
  blocked (s_g s) (g_il (s_g s)) = true -> exists t, is_pend_i (l_pc (s_l s t)) = true.
Proof.
  intros s Rs Hl Hq Hb.
  pose proof (wf_ipc _ _ _ (reachable_wf false absorb_n no_limit react ok smode emode s Rs) Hl) as Hi.
  destruct (blocked_int _ _ Hi Hb) as [Hw Hr].
  destruct (wk_ai _ (reachable_wake absorb_n no_limit react Hnl ok smode emode s Rs) Hl Hw Hq) as [Rd | P];
    [congruence | exact P].
Qed.

(* The safety form: while Messages are queued for it, the internal thread can take a step, or a thread that owes it
   a signal can -- whatever the internal thread is doing. *)
Theorem internal_never_stuck : forall s,
  R s -> g_ist (s_g s) = ILive -> c_q (g_ci (s_g s)) <> [] ->
  (exists x, sys_step s (LStep I CRun) = Some x) \/
  (exists t x, is_pend_i (l_pc (s_l s t)) = true /\ sys_step s (LStep (U t) CRun) = Some x).
Proof.
  intros s Rs Hl Hq.
  destruct (blocked (s_g s) (g_il (s_g s))) eqn:Hb; [|left; apply int_enabled; auto].
  destruct (blocked_token s Rs Hl Hq Hb) as [t Pt].
  right. destruct (user_enabled s t (pend_i_unblocked _ _ Pt)) as [x Hx]. eauto.
Qed.

Theorem owner_never_stuck : forall s w,
  R s -> l_pc (s_l s 0) = PRecvPark CO w -> c_q (g_co (s_g s)) <> [] ->
  (exists x, sys_step s (LStep (U 0) CRun) = Some x) \/
  (exists t x, l_pc (s_l s t) = PSendSig CO true /\ sys_step s (LStep (U t) CRun) = Some x) \/
  (l_pc (g_il (s_g s)) = PSendSig CO true /\ exists x, sys_step s (LStep I CRun) = Some x).
Proof.
  intros s w Rs Hp Hq.
  destruct (no_lost_wakeup_owner s w Rs Hp Hq) as [A | [[t B] | [C D]]].
  - left. apply user_enabled. unfold blocked. rewrite Hp. rewrite (readable_wakeable _ _ A). reflexivity.
  - right. left. destruct (user_enabled s t) as [x Hx]; [unfold blocked; rewrite B; reflexivity | eauto].
  - right. right. split; auto. apply int_enabled; auto. unfold blocked. rewrite D. reflexivity.
Qed.

Lemma J_step : forall s lab s' ev, wf smode emode s -> J_inv s -> sys_step s lab = Some (s', ev) -> J_inv s'.
Proof.
  intros s lab s' ev W Jv H.
  destruct (sys_step_spec _ _ _ _ H) as [t o Hp Hk Ha | t c g' l' e' Hst | c g' l' e' Hl Hst]; clear H.
  - unfold J_inv in *. simpl. unfold upd. destruct (Nat.eqb_spec 0 t) as [<- | Ht]; [|exact Jv].
    simpl. destruct o; simpl; discriminate.
  - destruct (s_l s t) as [p k] eqn:El.
    assert (Hu : upc_ok t (mkL p k)) by (rewrite <- El; apply (wf_upc _ _ _ W)).
    unfold J_inv in *. simpl. unfold upd. destruct (Nat.eqb_spec 0 t) as [<- | Ht].
    + (* the owner enters the join only after the test of _threadRunning *)
      intros Hq. inversion Hst; subst; clear Hst; simpl in Hq; try discriminate Hq; auto;
        try (match goal with Hr : ret _ _ _ _ = _ |- _ => apply ret_target in Hr; rewrite Hq in Hr; discriminate Hr end).
    + intros Hq. specialize (Jv Hq).
      destruct (Step_running _ _ _ _ Hst) as [[n Hn] | [Hj | [Hx | (R1 & _)]]]; simpl in *;
        [subst p; destruct Ht; symmetry; exact (upc_life _ _ Hu eq_refl) .. | subst p; destruct Hu | congruence].
  - destruct (g_il (s_g s)) as [p k] eqn:El.
    assert (Hi : ipc_ok (mkL p k)) by (rewrite <- El; apply (wf_ipc _ _ _ W); exact Hl).
    unfold J_inv in *. simpl. intros Hq. specialize (Jv Hq).
    destruct (Step_running _ _ _ _ Hst) as [[n Hn] | [Hj | [Hx | (R1 & _)]]]; simpl in *;
      try (subst p; unfold ipc_ok in Hi; simpl in Hi; contradiction).
    * subst p. inversion Hst; subst. simpl. exact Jv.
    * congruence.
Qed.

Lemma reachable_J : forall s, R s -> J_inv s.
Proof.
  intros s H. induction H.
  - intros Hq. discriminate.
  - eapply J_step; eauto. eapply reachable_wf; eauto.
Qed.

(* ShutdownInternalThread(true), safety form: while the owner waits in the join, either the internal thread has
   finished -- and the join returns --, or the internal thread is alive and it, or a thread that owes it a signal,
   can take a step; in particular the NULL Message is still queued for it or it is already on its way out. *)
Theorem shutdown_completes : forall s,
  R s -> l_pc (s_l s 0) = PJoinWait -> l_k (s_l s 0) = [KDiscard] ->
  (g_ist (s_g s) = IExited /\ exists x, sys_step s (LStep (U 0) CRun) = Some x) \/
  (g_ist (s_g s) = ILive /\
   (In None (c_q (g_ci (s_g s))) \/ exiting (l_pc (g_il (s_g s))) = true) /\
   ((exists x, sys_step s (LStep I CRun) = Some x) \/
    (exists t x, is_pend_i (l_pc (s_l s t)) = true /\ sys_step s (LStep (U t) CRun) = Some x))).
Proof.
  intros s Rs Hp Hk.
  pose proof (reachable_wf false absorb_n no_limit react ok smode emode s Rs) as W.
  pose proof (reachable_S absorb_n no_limit react ok smode emode s Rs) as Sv.
  pose proof (reachable_J s Rs Hp) as Hr.
  assert (Hw : sh_wait (s_l s 0) = true) by (unfold sh_wait; rewrite Hp, Hk; reflexivity).
  specialize (Sv Hw).
  destruct (g_ist (s_g s)) eqn:Hl.
  - exfalso. pose proof (wf_running _ _ _ W) as Hr2. rewrite Hl, Hr in Hr2. discriminate.
  - right. split; [reflexivity|].
    assert (Hc : In None (c_q (g_ci (s_g s))) \/ exiting (l_pc (g_il (s_g s))) = true).
    { destruct Sv as [A | [B | [_ C]]]; auto. discriminate. }
    split; [exact Hc|].
    destruct Hc as [A | C].
    + apply internal_never_stuck; auto. intros E. rewrite E in A. contradiction.
    + left. apply int_enabled; auto. unfold blocked.
      destruct (l_pc (g_il (s_g s))); try discriminate; try reflexivity.
  - left. split; [reflexivity|]. apply user_enabled. unfold blocked. rewrite Hp, Hl. reflexivity.
Qed.

(* Messages queued before the thread is started are delivered once it starts: they stay queued, in order, ahead of
   everything sent later (fifo_no_overtaking), and a started thread with a non-empty queue is never stuck. *)
Theorem queued_before_start_delivered : forall s s',
  R s -> g_running (s_g s) = false -> steps_if false absorb_n no_limit react ok s s' ->
  (exists got more,
     c_rcvd (g_ci (s_g s')) = c_rcvd (g_ci (s_g s)) ++ got /\
     got ++ c_q (g_ci (s_g s')) = c_q (g_ci (s_g s)) ++ more) /\
  (g_ist (s_g s') = ILive -> c_q (g_ci (s_g s')) <> [] ->
   (exists x, sys_step s' (LStep I CRun) = Some x) \/
   (exists t x, is_pend_i (l_pc (s_l s' t)) = true /\ sys_step s' (LStep (U t) CRun) = Some x)).
Proof.
  intros s s' Rs _ St. split.
  - destruct (fifo_no_overtaking false absorb_n no_limit react ok smode emode s s' CI Rs St) as (got & more & A & _ & C).
    exists got, more. auto.
  - intros Hl Hq. apply internal_never_stuck; auto. eapply steps_reachable; eauto.
Qed.

(* A state in which no thread can take a step holds no undelivered Message for a blocked reader. *)
Theorem stuck_only_when_nothing_to_receive : forall s,
  R s -> (forall w c, sys_step s (LStep w c) = None) ->
  (g_ist (s_g s) = ILive -> c_q (g_ci (s_g s)) = []) /\
  (forall w, l_pc (s_l s 0) = PRecvPark CO w -> c_q (g_co (s_g s)) = []).
Proof.
  intros s Rs Hn. split.
  - intros Hl. destruct (c_q (g_ci (s_g s))) eqn:Eq; [reflexivity|]. exfalso.
    destruct (internal_never_stuck s Rs Hl) as [[x Hx] | (t & x & _ & Hx)]; [rewrite Eq; discriminate | |]; rewrite Hn in Hx; discriminate.
  - intros w Hp. destruct (c_q (g_co (s_g s))) eqn:Eq; [reflexivity|]. exfalso.
    destruct (owner_never_stuck s w Rs Hp) as [[x Hx] | [(t & x & _ & Hx) | [_ [x Hx]]]]; [rewrite Eq; discriminate | | |]; rewrite Hn in Hx; discriminate.
Qed.

End Theorems.

Section Final.
Variable absorb_n : nat.
Variable no_limit : N.
Variable react : nat -> list (chanid * msg) * bool.

Notation sys_step := (sys_step false absorb_n no_limit react).
Notation reachable_if := (reachable_if false absorb_n no_limit react).

Theorem fifo_exactly_once : forall ok m e s c, reachable_if ok m e s ->
  c_sent (ch (s_g s) c) = c_rcvd (ch (s_g s) c) ++ c_q (ch (s_g s) c).
Proof. intros ok m e s c H. exact (reachable_fifo false absorb_n no_limit react ok m e s H c). Qed.

Theorem running_iff_thread_exists : forall ok m e s, reachable_if ok m e s ->
  g_running (s_g s) = negb (ist_none (g_ist (s_g s))) /\
  (g_ist (s_g s) = ILive -> g_sockets (s_g s) = true -> g_alloc (s_g s) = true /\ g_iopen (s_g s) = true).
Proof.
  intros ok m e s H. pose proof (reachable_wf false absorb_n no_limit react ok m e s H) as W.
  split; [apply (wf_running _ _ _ W) | apply (wf_live_sock _ _ _ W)].
Qed.

End Final.

Section Runs.
Variable early : bool.
Variable absorb_n : nat.
Variable no_limit : N.
Variable react : nat -> list (chanid * msg) * bool.

Notation sys_step := (sys_step early absorb_n no_limit react).
Notation reachable_if := (reachable_if early absorb_n no_limit react).

Lemma run_reachable : forall ok m e labs s s', forallb ok labs = true -> run early absorb_n no_limit react s labs = Some s' ->
  reachable_if ok m e s -> reachable_if ok m e s'.
Proof.
  intros ok m e labs. induction labs as [|lab r IH]; intros s s' Hok H Rs; simpl in *.
  - inv H. exact Rs.
  - apply andb_true_iff in Hok. destruct Hok as [H1 H2].
    destruct (sys_step s lab) as [[s1 ev]|] eqn:Hs; [|discriminate].
    eapply IH; eauto. eapply reach_step; eauto.
Qed.

End Runs.

(* StartInternalThread as it was found ([early] = true): an event-driven internal thread can lose a wake-up.
   StartInternalThread read _messages.HasItems() before the socket pair existed; a Message that another thread appends right after that read is
   signalled into the void (the pair is not allocated yet), the initial signal is not sent (needsInitialSignal was
   computed too early), and the new thread blocks on its wake-up socket for ever with the Message queued.
   The witness: owner: Start reads HasItems() = false | thread 1: SendMessageToInternalThread(7) completely |
   owner: allocates the pair, creates the thread, returns | internal thread: runs into its select(). *)
Definition refute_labels : list label :=
  [ LBegin 0 OStart; LStep (U 0) CRun;
    LBegin 1 (OSend CI (Some 7)); LStep (U 1) CRun; LStep (U 1) CRun;
    LStep (U 0) CRun; LStep (U 0) CRun;
    LStep I CRun; LStep I CRun; LStep I CRun; LStep I CRun; LStep I CRun ].

Theorem evd_lost_wakeup_refuted : forall absorb_n no_limit react,
  exists s, reachable true absorb_n no_limit react true true s /\
    g_ist (s_g s) = ILive /\ l_pc (g_il (s_g s)) = PIEvWait /\ c_q (g_ci (s_g s)) = [Some 7] /\
    readable (s_g s) CI = false /\ (forall t, l_pc (s_l s t) = PIdle) /\
    (forall w c, sys_step true absorb_n no_limit react s (LStep w c) = None).
Proof.
  intros absorb_n no_limit react.
  destruct (run true absorb_n no_limit react (sys0 true true) refute_labels) as [s|] eqn:Hr; [|vm_compute in Hr; discriminate].
  exists s. split.
  - eapply run_reachable; [|exact Hr | apply reach_init]. reflexivity.
  - vm_compute in Hr. inv Hr. simpl. repeat split; auto.
    + intros [|[|t]]; reflexivity.
    + intros [[|[|t]]|] []; reflexivity.
Qed.

(* absorbing signal bytes makes progress (the translated buffer size is positive) *)

Lemma absorb_progress : forall n c g, 1 <= n -> fd_ok g c = true -> 0 < c_sig (ch g c) ->
  c_sig (ch (absorb n c g) c) < c_sig (ch g c).
Proof.
  intros n c g Hn Hf Hs. unfold absorb. rewrite Hf. rewrite ch_set_same. simpl. lia.
Qed.

Lemma absorb_drains : forall n c g, fd_ok g c = true -> c_sig (ch g c) <= n -> c_sig (ch (absorb n c g) c) = 0.
Proof.
  intros n c g Hf Hs. unfold absorb. rewrite Hf. rewrite ch_set_same. simpl. lia.
Qed.

(* non-vacuity: reachable states that satisfy the premises of the theorems *)

Definition react0 : nat -> list (chanid * msg) * bool := fun _ => ([], false).

Definition start_labels : list label :=
  [LBegin 0 OStart; LStep (U 0) CRun; LStep (U 0) CRun; LStep (U 0) CRun; LStep (U 0) CRun; LStep (U 0) CRun].
Definition int_park_labels : list label :=   (* the default internal thread runs into its blocking wait *)
  [LStep I CRun; LStep I CRun; LStep I CRun; LStep I CRun; LStep I CRun; LStep I CRun; LStep I CRun].

Ltac by_run labs m e :=
  match goal with
  | |- exists s, reachable_if ?ea ?a ?nl ?r ?ok ?mm ?ee s /\ _ =>
      destruct (run ea a nl r (sys0 m e) labs) as [s|] eqn:Hr; [|vm_compute in Hr; discriminate];
      exists s; split; [eapply run_reachable; [|exact Hr | apply reach_init]; reflexivity |];
      vm_compute in Hr; inv Hr; simpl
  end.

(* the internal thread is parked, a Message is queued, the sender has not signalled yet *)
Example ex_internal_parked : forall n nl, exists s, reachable_if false n nl react0 any_label true false s /\
  g_ist (s_g s) = ILive /\ l_pc (g_il (s_g s)) = PRecvPark CI WNever /\ c_q (g_ci (s_g s)) = [Some 5] /\
  readable (s_g s) CI = false /\ l_pc (s_l s 1) = PSendSig CI true.
Proof.
  intros n nl. by_run (start_labels ++ int_park_labels ++ [LBegin 1 (OSend CI (Some 5)); LStep (U 1) CRun]) true false.
  repeat split; reflexivity.
Qed.

(* the same with the wait-condition *)
Example ex_internal_parked_wc : forall n nl, exists s, reachable_if false n nl react0 any_label false false s /\
  g_ist (s_g s) = ILive /\ l_pc (g_il (s_g s)) = PRecvPark CI WNever /\ c_q (g_ci (s_g s)) = [Some 5] /\
  readable (s_g s) CI = false /\ l_pc (s_l s 1) = PSendSig CI true.
Proof.
  intros n nl. by_run (start_labels ++ int_park_labels ++ [LBegin 1 (OSend CI (Some 5)); LStep (U 1) CRun]) false false.
  repeat split; reflexivity.
Qed.

(* the owner is parked on the reply queue, a reply is queued by another thread that has not signalled yet *)
Example ex_owner_parked : forall n nl, exists s, reachable_if false n nl react0 any_label true false s /\
  l_pc (s_l s 0) = PRecvPark CO WNever /\ c_q (g_co (s_g s)) = [Some 9] /\ l_pc (s_l s 1) = PSendSig CO true.
Proof.
  intros n nl.
  by_run (start_labels ++ [LBegin 0 (ORecv WNever); LStep (U 0) CRun; LStep (U 0) CRun; LStep (U 0) CRun;
                           LBegin 1 (OSend CO (Some 9)); LStep (U 1) CRun]) true false.
  repeat split; reflexivity.
Qed.

(* the owner waits in the join of ShutdownInternalThread(true) while the NULL Message is still queued *)
Example ex_shutdown_waiting : forall n nl, exists s, reachable_if false n nl react0 any_label true false s /\
  l_pc (s_l s 0) = PJoinWait /\ l_k (s_l s 0) = [KDiscard] /\ g_ist (s_g s) = ILive /\ c_q (g_ci (s_g s)) = [None].
Proof.
  intros n nl.
  by_run (start_labels ++ [LBegin 0 (OShutdown true); LStep (U 0) CRun; LStep (U 0) CRun; LStep (U 0) CRun; LStep (U 0) CRun]) true false.
  repeat split; reflexivity.
Qed.

(* ... and after the internal thread has left *)
Example ex_shutdown_exited : forall n nl, exists s, reachable_if false n nl react0 any_label true false s /\
  l_pc (s_l s 0) = PJoinWait /\ l_k (s_l s 0) = [KDiscard] /\ g_ist (s_g s) = IExited.
Proof.
  intros n nl.
  by_run (start_labels ++ [LBegin 0 (OShutdown true); LStep (U 0) CRun; LStep (U 0) CRun; LStep (U 0) CRun; LStep (U 0) CRun] ++
          [LStep I CRun; LStep I CRun; LStep I CRun; LStep I CRun; LStep I CRun; LStep I CRun; LStep I CRun; LStep I CRun]) true false.
  repeat split; reflexivity.
Qed.

(* Messages queued while the thread is not running (their signal was dropped: no socket pair yet) *)
Example ex_queued_before_start : forall n nl, exists s, reachable_if false n nl react0 any_label true false s /\
  g_running (s_g s) = false /\ c_q (g_ci (s_g s)) = [Some 1; Some 2] /\ c_sig (g_ci (s_g s)) = 0 /\ g_alloc (s_g s) = false.
Proof.
  intros n nl.
  by_run [LBegin 0 (OSend CI (Some 1)); LStep (U 0) CRun; LStep (U 0) CRun; LBegin 0 (OSend CI (Some 2)); LStep (U 0) CRun; LStep (U 0) CRun] true false.
  repeat split; reflexivity.
Qed.

(* the event-driven thread is blocked in its select() with a Message queued before the start (its signal was dropped):
   only StartInternalThread, which has yet to look at the queue, will wake it *)
Example ex_evd_parked : forall n nl, exists s, reachable_if false n nl react0 any_label true true s /\
  g_ist (s_g s) = ILive /\ l_pc (g_il (s_g s)) = PIEvWait /\ c_q (g_ci (s_g s)) = [Some 3] /\
  readable (s_g s) CI = false /\ l_pc (s_l s 0) = PStartSpawned.
Proof.
  intros n nl.
  by_run [LBegin 0 (OSend CI (Some 3)); LStep (U 0) CRun; LStep (U 0) CRun;
          LBegin 0 OStart; LStep (U 0) CRun; LStep (U 0) CRun;
          LStep I CRun; LStep I CRun; LStep I CRun; LStep I CRun; LStep I CRun] true true.
  repeat split; reflexivity.
Qed.

(* the schedule that lost the wake-up before the repair (refute_labels), on the repaired order: the owner finds the
   Message under the lock and signals; the event-driven thread's select() is satisfiable *)
Example ex_race_repaired : forall n nl, exists s, reachable_if false n nl react0 any_label true true s /\
  g_ist (s_g s) = ILive /\ l_pc (g_il (s_g s)) = PIEvWait /\ c_q (g_ci (s_g s)) = [Some 7] /\
  readable (s_g s) CI = true.
Proof.
  intros n nl.
  by_run [LBegin 0 OStart; LStep (U 0) CRun;
          LBegin 1 (OSend CI (Some 7)); LStep (U 1) CRun; LStep (U 1) CRun;
          LStep (U 0) CRun; LStep (U 0) CRun; LStep (U 0) CRun; LStep (U 0) CRun;
          LStep I CRun; LStep I CRun; LStep I CRun; LStep I CRun; LStep I CRun] true true.
  repeat split; reflexivity.
Qed.

(* a state in which nothing can move *)
Example ex_stuck : forall n nl, exists s, reachable_if false n nl react0 any_label true false s /\
  (forall w c, sys_step false n nl react0 s (LStep w c) = None).
Proof.
  intros n nl. exists (sys0 true false). split; [apply reach_init|]. intros [t|] []; reflexivity.
Qed.

Section UserSocket.
Variable absorb_n : nat.
Variable no_limit : N.
Variable react : nat -> list (chanid * msg) * bool.

Notation sys_step := (sys_step false absorb_n no_limit react).

(* a blocked owner is woken by its registered user socket becoming ready-for-read *)
Theorem user_socket_wakes_owner : forall s w,
  g_sockets (s_g s) = true -> l_pc (s_l s 0) = PRecvPark CO w ->
  u_reg (g_usr (s_g s)) = true -> 0 < u_bytes (g_usr (s_g s)) ->
  exists x, sys_step s (LStep (U 0) CRun) = Some x.
Proof.
  intros s w Hs Hp Hr Hb. simpl.
  assert (Hbl : blocked (s_g s) (s_l s 0) = false).
  { unfold blocked. rewrite Hp. unfold wakeable, uready. rewrite Hs, Hr. apply Nat.ltb_lt in Hb. rewrite Hb.
    simpl. rewrite orb_true_r. reflexivity. }
  destruct (step_enabled false absorb_n no_limit react _ _ Hbl) as [[[g' l'] e] Hx]. rewrite Hx. eauto.
Qed.

Lemma next_reply_no_ret : forall evd rs q k p k' e' x, next_reply evd rs q k = (p, k', e') -> ~ In (ERet x) e'.
Proof. intros evd rs q k p k' e' x H. unfold next_reply in H. destruct rs as [|[c0 m0] rest]; inv H; simpl; tauto. Qed.

Lemma ret_emits : forall evd k r p k' e' x, ret react evd r k = (p, k', e') -> In (ERet x) e' -> x = r \/ x = RVoid.
Proof.
  intros evd k. induction k as [|f k IH]; intros r p k' e' x H Hin; simpl in H.
  - inv H. simpl in Hin. destruct Hin as [E | []]. inv E. auto.
  - destruct f.
    + destruct wait; [inv H; simpl in Hin; tauto|]. right. destruct (IH _ _ _ _ _ H Hin); auto.
    + right. destruct (IH _ _ _ _ _ H Hin); auto.
    + exfalso. unfold dispatch in H. destruct r as [ | [y|] n | | | | | | ]; try (inv H; simpl in Hin; intuition discriminate).
      destruct (next_reply evd (fst (react y)) (snd (react y)) k) as [[p1 k1] e1] eqn:En. inv H.
      simpl in Hin. destruct Hin as [E | Hin]; [discriminate|]. eapply next_reply_no_ret; eauto.
    + exfalso. eapply next_reply_no_ret; eauto.
Qed.

Lemma signal_no_ret : forall nl c g g' e x, signal nl c g = (g', e) -> ~ In (ERet x) e.
Proof.
  intros nl c g g' e x H. unfold signal in H.
  repeat match type of H with context [if ?b then _ else _] => destruct b | context [match ?y with CI => _ | CO => _ end] => destruct y end;
    inv H; simpl; intuition discriminate.
Qed.

(* B_IO_READY is truthful: a call returns it only when the registered user socket is ready-for-read and the signal
   socket is not, and IsOwnerThreadSocketReady() then says yes *)
Theorem io_ready_is_truthful : forall s t c s' ev,
  sys_step s (LStep (U t) c) = Some (s', ev) -> In (ERet RIoReady) ev ->
  uready (s_g s) = true /\ readable (s_g s) CO = false /\ u_flag (g_usr (s_g s')) = true.
Proof.
  intros s t c s' ev H Hin. simpl in H.
  destruct (step false absorb_n no_limit react c (s_g s) (s_l s t)) as [[[g' l'] e']|] eqn:Hst; [|discriminate]. inv H.
  apply step_spec in Hst. simpl.
  inversion Hst; subst; clear Hst;
    try (simpl in Hin; intuition discriminate; fail);
    try (exfalso; apply in_app_or in Hin; destruct Hin as [Hin | Hin];
         [ first [ eapply signal_no_ret; eassumption | simpl in Hin; intuition discriminate ]
         | simpl in Hin; intuition discriminate ]; fail);
    try (apply in_app_or in Hin; destruct Hin as [Hin | Hin];
         [ exfalso; first [ eapply signal_no_ret; eassumption | simpl in Hin; intuition discriminate ]
         | match goal with Hr : ret _ _ _ _ = _ |- _ => destruct (ret_emits _ _ _ _ _ _ _ Hr Hin) as [E | E]; try discriminate end ]).
  - (* woken by the user socket *)
    destruct x.
    + exfalso. match goal with Hw : wakeable _ CI = true, Hr : readable _ CI = false |- _ => rewrite wakeable_CI in Hw; congruence end.
    + match goal with Hw : wakeable _ CO = true, Hr : readable _ CO = false |- _ =>
        unfold wakeable in Hw; rewrite Hr in Hw; simpl in Hw; split; [exact Hw | split; [exact Hr|]];
        unfold uready in Hw; apply andb_true_iff in Hw; destruct Hw as [Hw1 Hw2]; apply andb_true_iff in Hw1; destruct Hw1 as [_ Hreg];
        unfold park_flags; rewrite Hreg; simpl; exact Hw2 end.
  - (* an operation on the user socket never returns it *)
    exfalso. subst r. match goal with Hu : user_step ?u _ = _ |- _ => destruct u; simpl in Hu;
      repeat match type of Hu with context [if ?b then _ else _] => destruct b end; inv Hu end.
Qed.

End UserSocket.

(* the owner blocked with its user socket registered; another thread makes it ready: the owner can return B_IO_READY *)
Example ex_user_socket : forall n nl, exists s, reachable_if false n nl react0 any_label true false s /\
  l_pc (s_l s 0) = PRecvPark CO WNever /\ uready (s_g s) = true /\ readable (s_g s) CO = false.
Proof.
  intros n nl.
  by_run (start_labels ++ [LBegin 0 (OUser UReg); LStep (U 0) CRun;
                           LBegin 0 (ORecv WNever); LStep (U 0) CRun; LStep (U 0) CRun; LStep (U 0) CRun;
                           LBegin 1 (OUser UPing); LStep (U 1) CRun]) true false.
  repeat split; reflexivity.
Qed.

(* a reaction that sends further work to the internal thread itself: having taken Message 5 from its queue, the thread
   has appended Message 105 to that (now empty) queue and owes itself the signal *)
Definition react_self : nat -> list (chanid * msg) * bool := fun x => ([(CI, Some (x + 100))], false).

Example ex_self_send : forall n nl, exists s, reachable_if false n nl react_self any_label true false s /\
  g_ist (s_g s) = ILive /\ l_pc (g_il (s_g s)) = PSendSig CI true /\ c_q (g_ci (s_g s)) = [Some 105] /\
  c_rcvd (g_ci (s_g s)) = [Some 5].
Proof.
  intros n nl.
  by_run ([LBegin 0 (OSend CI (Some 5)); LStep (U 0) CRun; LStep (U 0) CRun] ++ start_labels ++
          [LStep I CRun; LStep I CRun; LStep I CRun; LStep I CRun; LStep I CRun; LStep I CRun; LStep I CRun; LStep I CRun]) true false.
  repeat split; reflexivity.
Qed.

(* A Wait() entered (or pending) while the condition's notification count is positive returns at once and zeroes the count:
   in wait-condition mode no receive stays parked while its count is positive.  (This is what makes "signal only on the
   empty -> non-empty transition" sufficient even when a stale notification is left behind by a receive that found its
   Message without waiting; both WaitAux and the timed WaitUntilAux of WaitCondition.h must honour it.) *)
Theorem wait_returns_at_once_when_notified : forall early absorb_n nl react g x w k,
  g_sockets g = false -> (0 < c_wc (ch g x))%N ->
  step early absorb_n nl react CRun g (mkL (PRecvPark x w) k) =
  Some (set_ch x (with_wc (ch g x) 0%N) g, mkL (PRecvAbsorb x w) k, [EWoken]).
Proof.
  intros early absorb_n nl react g x w k Hs Hc. unfold step. simpl.
  assert (Hw : wakeable g x = true).
  { unfold wakeable, readable. rewrite Hs. apply N.ltb_lt in Hc. rewrite Hc. reflexivity. }
  rewrite Hw, Hs. destruct w; reflexivity.
Qed.

Theorem no_receive_parks_while_notified : forall early absorb_n nl react s t x w,
  g_sockets (s_g s) = false -> l_pc (s_l s t) = PRecvPark x w -> (0 < c_wc (ch (s_g s) x))%N ->
  exists s', sys_step early absorb_n nl react s (LStep (U t) CRun) = Some (s', [EWoken]) /\
             c_wc (ch (s_g s') x) = 0%N /\ l_pc (s_l s' t) = PRecvAbsorb x w.
Proof.
  intros early absorb_n nl react s t x w Hs Hp Hc. simpl.
  destruct (s_l s t) as [p k] eqn:El. simpl in Hp. subst p.
  rewrite (wait_returns_at_once_when_notified early absorb_n nl react _ x w k Hs Hc).
  eexists. split; [reflexivity|]. simpl. split; [rewrite ch_set_same; reflexivity|].
  unfold upd. rewrite Nat.eqb_refl. reflexivity.
Qed.
