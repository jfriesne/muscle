(* C11 -- structural invariants of the Thread messaging LTS (Conc/ThreadQ.v): who can be where (roles), the life-cycle
   flags, and the FIFO history invariant; the step function as a relation (Step, SysStep) with its frame lemmas (what a
   step leaves alone).  Everything here holds for every label contract [ok]. *)
From Coq Require Import List Arith Bool Lia NArith.
From Muscle Require Import Conc.ThreadQ.
Import ListNotations.

Lemma ch_set_ch : forall c c' x g, ch (set_ch c x g) c' = if match c, c' with CI, CI | CO, CO => true | _, _ => false end then x else ch g c'.
Proof. intros [] [] x g; reflexivity. Qed.

Lemma ch_set_same : forall c x g, ch (set_ch c x g) c = x.
Proof. intros [] x g; reflexivity. Qed.

Definition chan_eqb (a b : chanid) : bool := match a, b with CI, CI | CO, CO => true | _, _ => false end.

Lemma chan_eqb_spec : forall a b, reflect (a = b) (chan_eqb a b).
Proof. intros [] []; simpl; constructor; congruence. Qed.

Lemma ch_set_other : forall c c' x g, c <> c' -> ch (set_ch c x g) c' = ch g c'.
Proof. intros [] [] x g H; try reflexivity; congruence. Qed.

Ltac fin_frame :=
  simpl; repeat split; intros;
  repeat match goal with c : chanid |- _ => destruct c end; simpl; auto; try congruence; try lia.

(* the fields a signal can change *)
Lemma signal_frame : forall nl c g g' e, signal nl c g = (g', e) ->
  g_sockets g' = g_sockets g /\ g_evd g' = g_evd g /\ g_alloc g' = g_alloc g /\ g_running g' = g_running g /\
  g_iopen g' = g_iopen g /\ g_ist g' = g_ist g /\ g_il g' = g_il g /\ g_gen g' = g_gen g /\
  (forall c', c_q (ch g' c') = c_q (ch g c') /\ c_sent (ch g' c') = c_sent (ch g c') /\ c_rcvd (ch g' c') = c_rcvd (ch g c')) /\
  (forall c', c' <> c -> ch g' c' = ch g c').
Proof.
  intros nl c g g' e H. unfold signal in H.
  destruct (g_sockets g) eqn:Hs;
    [destruct c; [destruct (g_alloc g) eqn:Ha; [destruct (g_iopen g) eqn:Ho|] | destruct (g_alloc g && g_iopen g) eqn:Ha] | destruct c];
    inversion H; subst; clear H; fin_frame.
Qed.

Lemma absorb_frame : forall n c g,
  let g' := absorb n c g in
  g_sockets g' = g_sockets g /\ g_evd g' = g_evd g /\ g_alloc g' = g_alloc g /\ g_running g' = g_running g /\
  g_iopen g' = g_iopen g /\ g_ist g' = g_ist g /\ g_il g' = g_il g /\ g_gen g' = g_gen g /\
  (forall c', c_q (ch g' c') = c_q (ch g c') /\ c_sent (ch g' c') = c_sent (ch g c') /\ c_rcvd (ch g' c') = c_rcvd (ch g c')
              /\ c_wc (ch g' c') = c_wc (ch g c')) /\
  (forall c', c' <> c -> ch g' c' = ch g c').
Proof.
  intros n c g. unfold absorb. destruct (fd_ok g c) eqn:Hs; destruct c; fin_frame.
Qed.

Lemma alloc_frame : forall g,
  let g' := alloc_sockets g in
  g_sockets g' = g_sockets g /\ g_evd g' = g_evd g /\ g_running g' = g_running g /\
  g_ist g' = g_ist g /\ g_il g' = g_il g /\ g_gen g' = g_gen g /\
  (forall c', c_q (ch g' c') = c_q (ch g c') /\ c_sent (ch g' c') = c_sent (ch g c') /\ c_rcvd (ch g' c') = c_rcvd (ch g c')
              /\ c_wc (ch g' c') = c_wc (ch g c')).
Proof.
  intros g. unfold alloc_sockets. destruct (g_sockets g && negb (g_alloc g)) eqn:Hs; fin_frame.
Qed.

Lemma close_frame : forall g,
  let g' := close_sockets g in
  g_sockets g' = g_sockets g /\ g_evd g' = g_evd g /\ g_running g' = g_running g /\
  g_ist g' = g_ist g /\ g_il g' = g_il g /\ g_gen g' = g_gen g /\
  (forall c', c_q (ch g' c') = c_q (ch g c') /\ c_sent (ch g' c') = c_sent (ch g c') /\ c_rcvd (ch g' c') = c_rcvd (ch g c')
              /\ c_wc (ch g' c') = c_wc (ch g c')).
Proof.
  intros g. unfold close_sockets. destruct (g_sockets g) eqn:Hs; fin_frame.
Qed.

(* roles: which thread can be at which program counter, with which continuation *)

Definition upc_ok (t : tid) (l : local) : Prop :=
  match l_pc l, l_k l with
  | PIdle, [] => True
  | PSendCS CI None, [KShutdown _] => t = 0
  | PSendSig CI _, [KShutdown _] => t = 0
  | PSendCS _ _, [] => True
  | PSendSig _ _, [] => True
  | PRecvAbsorb CO _, [] | PRecvCS CO _, [] | PRecvGot CO _ _, [] | PRecvNone CO _, [] | PRecvPark CO _, [] => t = 0
  | PStartRead, [] | PStartSpawn _, [] | PStartSpawned, [] | PStartCheck, [] | PStartSig _, [] | PShutdown _, [] | PGetSock, [] => t = 0
  | PJoinTest, [] | PJoinWait, [] | PJoinTest, [KDiscard] | PJoinWait, [KDiscard] => t = 0
  | PUser UPing, [] => True
  | PUser _, [] => t = 0
  | _, _ => False
  end.

Definition ipc_ok (l : local) : Prop :=
  match l_pc l, l_k l with
  | PIEntry, [] | PIStartupCS, [] | PIAfterStartup, [] | PILoop, [] | PIEvLoop, [] | PIEvWait, [] | PIEvPoll, [] | PIExit, [] => True
  | PRecvAbsorb CI _, [KLoop] | PRecvCS CI _, [KLoop] | PRecvGot CI _ _, [KLoop] | PRecvNone CI _, [KLoop] | PRecvPark CI _, [KLoop] => True
  | PSendCS _ _, [KReplies _ _] | PSendSig _ _, [KReplies _ _] => True
  | _, _ => False
  end.

(* the two steps by which the owner creates and reaps the internal thread *)
Definition life_pc (p : pc) : bool := match p with PStartSpawn _ | PJoinWait => true | _ => false end.

Lemma upc_life : forall t l, upc_ok t l -> life_pc (l_pc l) = true -> t = 0.
Proof.
  intros t [p k] Hu H. unfold upc_ok in Hu. simpl in *.
  destruct p; try discriminate; destruct k as [|[] [|? ?]]; try contradiction; exact Hu.
Qed.

Definition ist_none (i : istat) : bool := match i with INone => true | _ => false end.

Record wf (m e : bool) (s : sys) : Prop := mkWf {
  wf_sockets : g_sockets (s_g s) = m;
  wf_evd : g_evd (s_g s) = e;
  wf_running : g_running (s_g s) = negb (ist_none (g_ist (s_g s)));
  wf_live_sock : g_ist (s_g s) = ILive -> g_sockets (s_g s) = true -> g_alloc (s_g s) = true /\ g_iopen (s_g s) = true;
  wf_wc_alloc : g_sockets (s_g s) = false -> g_alloc (s_g s) = true;
  wf_none_open : g_ist (s_g s) = INone -> g_sockets (s_g s) = true -> g_alloc (s_g s) = true -> g_iopen (s_g s) = true;
  wf_upc : forall t, upc_ok t (s_l s t);
  wf_ipc : g_ist (s_g s) = ILive -> ipc_ok (g_il (s_g s));
  wf_start_idle : forall n, l_pc (s_l s 0) = PStartSpawn n -> g_running (s_g s) = false
}.

Ltac inv H := inversion H; subst; clear H.

(* the continuations that occur have at most one frame *)
Ltac destr_k k := destruct k as [|[] [|? ?]]; try contradiction.

(* computes a [ret] over a known continuation *)
Ltac kill_ret :=
  repeat match goal with
  | Hr : ret _ _ _ _ = _ |- _ => simpl in Hr
  | Hr : (if ?w then _ else _) = (_, _, _) |- _ => destruct w
  | Hr : (_, _, _) = (_, _, _) |- _ => inv Hr
  end.

Ltac destr_k_in Hi := match type of Hi with context [match ?kk with _ => _ end] => destr_k kk end.

(* the cases of a step of the internal thread: its role leaves one channel and one continuation per program counter *)
Ltac inv_int Hst Hi :=
  inversion Hst; subst; clear Hst; unfold ipc_ok in Hi; simpl in Hi; try contradiction;
  try (match goal with y : chanid |- _ => destruct y; [|solve [contradiction | destr_k_in Hi]] end); destr_k_in Hi.

(* ... and of a user thread: its role fixes the continuation once channel, Message and socket operation are known; the
   returns are computed *)
Ltac inv_user Hst Hu :=
  inversion Hst; subst; clear Hst; unfold upc_ok in Hu; simpl in Hu; try contradiction;
  repeat match goal with y : chanid |- _ => destruct y | y : msg |- _ => destruct y | y : uop |- _ => destruct y end;
  simpl in Hu; try contradiction; destr_k_in Hu; kill_ret.

Section Wf.
Variable early : bool.
Variable absorb_n : nat.
Variable no_limit : N.
Variable react : nat -> list (chanid * msg) * bool.
Variable ok : label -> bool.
Variables smode emode : bool.

Notation step := (step early absorb_n no_limit react).
Notation sys_step := (sys_step early absorb_n no_limit react).
Notation reachable_if := (reachable_if early absorb_n no_limit react).

Lemma upd_same : forall f t v, upd f t v t = v.
Proof. intros. unfold upd. rewrite Nat.eqb_refl. reflexivity. Qed.

Lemma upd_other : forall f t v x, x <> t -> upd f t v x = f x.
Proof. intros. unfold upd. destruct (Nat.eqb_spec x t); congruence. Qed.

(* what [ret] can produce, by the shape of the continuation *)
Lemma ret_nil : forall ev r, ret react ev r [] = (PIdle, [], [ERet r]).
Proof. reflexivity. Qed.

Lemma next_reply_ipc : forall ev rs q p k' e', next_reply ev rs q [] = (p, k', e') -> ipc_ok (mkL p k').
Proof.
  intros ev rs q p k' e' H. unfold next_reply in H. destruct rs as [|[c m] rest].
  - inversion H; subst. destruct q; [|destruct ev]; exact Coq.Init.Logic.I.
  - inversion H; subst. exact Coq.Init.Logic.I.
Qed.

Lemma ret_internal : forall ev r k p k' e', (k = [KLoop] \/ exists rs q, k = [KReplies rs q]) ->
  ret react ev r k = (p, k', e') -> ipc_ok (mkL p k').
Proof.
  intros ev r k p k' e' [Hk | [rs [q Hk]]] H; subst; simpl in H.
  - unfold dispatch in H. destruct r as [ | [x|] n | | | | | | ]; try (inversion H; subst; exact Coq.Init.Logic.I).
    + destruct (next_reply ev (fst (react x)) (snd (react x)) []) as [[p0 k0] e0] eqn:Hn. inversion H; subst.
      eapply next_reply_ipc; eauto.
    + inversion H; subst. destruct ev; exact Coq.Init.Logic.I.
  - eapply next_reply_ipc; eauto.
Qed.

(* where a returning call resumes: the thread is idle again, goes on to the join of ShutdownInternalThread(true), or is the
   internal thread back in its loop *)
Definition ret_pc (p : pc) : bool :=
  match p with PIdle | PJoinTest | PIExit | PILoop | PIEvLoop | PIEvPoll | PSendCS _ _ => true | _ => false end.

Lemma next_reply_target : forall ev rs q k p k' e', next_reply ev rs q k = (p, k', e') -> ret_pc p = true.
Proof. intros ev rs q k p k' e' H. unfold next_reply in H. destruct rs as [|[c m] rest]; inv H; [destruct q, ev|]; reflexivity. Qed.

Lemma ret_target : forall ev k r p k' e', ret react ev r k = (p, k', e') -> ret_pc p = true.
Proof.
  intros ev k. induction k as [|f k IH]; intros r p k' e' H; simpl in H; [inv H; reflexivity|].
  destruct f; [destruct wait; [inv H; reflexivity|] | | | exact (next_reply_target _ _ _ _ _ _ _ H)]; try exact (IH _ _ _ _ H).
  unfold dispatch in H. destruct r as [ | [y|] n | | | | | | ]; try (inv H; try destruct ev; reflexivity).
  destruct (next_reply ev (fst (react y)) (snd (react y)) k) as [[p0 k0] e0] eqn:En. inv H.
  exact (next_reply_target _ _ _ _ _ _ _ En).
Qed.

(* the step function as a relation, one constructor per behaviour (the big case analysis is done once) *)

Definition enq (x : chan) (m : msg) : chan := mkCh (c_q x ++ [m]) (c_sig x) (c_wc x) (c_sent x ++ [m]) (c_rcvd x).
Definition deq (x : chan) (m : msg) (r : list msg) : chan := mkCh r (c_sig x) (c_wc x) (c_sent x) (c_rcvd x ++ [m]).
Definition spawned (g : gst) : gst :=
  mkG (g_sockets g) (g_evd g) (g_alloc g) true (g_iopen g) (g_ci g) (g_co g) ILive (mkL PIEntry []) (S (g_gen g)) (g_usr g).
Definition joined (g : gst) : gst :=
  mkG (g_sockets g) (g_evd g) (g_alloc g) false (g_iopen g) (g_ci g) (g_co g) INone (g_il g) (g_gen g) (g_usr g).
Definition exited (g : gst) : gst :=
  mkG (g_sockets g) (g_evd g) (g_alloc g) (g_running g) (if g_sockets g then false else g_iopen g)
      (if g_sockets g then with_sig (g_ci g) 0 else g_ci g) (g_co g) IExited (g_il g) (g_gen g) (g_usr g).

(* the operations on the owner's user-registered socket: new state and result *)
Definition user_step (u : uop) (g : gst) : gst * res :=
  match u with
  | UReg => if g_sockets g then (set_usr (mkU true (u_bytes (g_usr g)) false) g, ROk) else (g, RBadObject)
  | UUnreg => if g_sockets g
              then (if u_reg (g_usr g) then (set_usr (mkU false (u_bytes (g_usr g)) false) g, ROk) else (g, RNotFound))
              else (g, RBadObject)
  | UPing => (set_usr (mkU (u_reg (g_usr g)) (S (u_bytes (g_usr g))) (u_flag (g_usr g))) g, RVoid)
  | UEat => (set_usr (mkU (u_reg (g_usr g)) 0 (u_flag (g_usr g))) g, RVoid)
  end.

Lemma wakeable_wc : forall g x, g_sockets g = false -> wakeable g x = readable g x.
Proof. intros g x H. unfold wakeable, uready. rewrite H. destruct x; simpl; apply orb_false_r. Qed.

Lemma user_step_frame : forall u g g' r, user_step u g = (g', r) -> exists x, g' = set_usr x g.
Proof.
  intros u g g' r H. destruct u; simpl in H;
    repeat match type of H with context [if ?b then _ else _] => destruct b end; inv H; eauto;
    exists (g_usr g'); destruct g'; reflexivity.
Qed.

Inductive Step : choice -> gst -> local -> gst -> local -> list ev -> Prop :=
| S_SendCS : forall g k x m,
    Step CRun g (mkL (PSendCS x m) k) (set_ch x (enq (ch g x) m) g)
         (mkL (PSendSig x (Nat.eqb (length (c_q (ch g x) ++ [m])) 1)) k) [EDump]
| S_SendSig_first : forall g k x g' e p k' e',
    signal no_limit x g = (g', e) -> ret react (g_evd g') ROk k = (p, k', e') ->
    Step CRun g (mkL (PSendSig x true) k) g' (mkL p k') (e ++ e')
| S_SendSig_not : forall g k x p k' e',
    ret react (g_evd g) ROk k = (p, k', e') ->
    Step CRun g (mkL (PSendSig x false) k) g (mkL p k') ([] ++ e')
| S_Absorb : forall g k x w,
    Step CRun g (mkL (PRecvAbsorb x w) k) (absorb absorb_n x g) (mkL (PRecvCS x w) k) []
| S_RecvCS_none : forall g k x w,
    c_q (ch g x) = [] ->
    Step CRun g (mkL (PRecvCS x w) k) g (mkL (PRecvNone x w) k) [EDump]
| S_RecvCS_some : forall g k x w m r,
    c_q (ch g x) = m :: r ->
    Step CRun g (mkL (PRecvCS x w) k) (set_ch x (deq (ch g x) m r) g) (mkL (PRecvGot x m (length r)) k) [EDump]
| S_RecvGot : forall g k x m n p k' e',
    ret react (g_evd g) (RMsg m n) k = (p, k', e') ->
    Step CRun g (mkL (PRecvGot x m n) k) g (mkL p k') ([] ++ e')
| S_RecvNone_poll : forall g k x p k' e',
    ret react (g_evd g) RTimedOut k = (p, k', e') ->
    Step CRun g (mkL (PRecvNone x WPoll) k) g (mkL p k') ([] ++ e')
(* the count n shown in EPark is left free: Step says less than step about the events, nothing here depends on them *)
| S_RecvNone_park : forall g k x w n,
    w <> WPoll -> (g_sockets g = true -> fd_ok g x = true) ->
    Step CRun g (mkL (PRecvNone x w) k) g (mkL (PRecvPark x w) k) [EPark x n]
| S_RecvNone_bad : forall g k x w p k' e',
    w <> WPoll -> g_sockets g = true -> fd_ok g x = false ->
    ret react (g_evd g) RBadObject k = (p, k', e') ->
    Step CRun g (mkL (PRecvNone x w) k) g (mkL p k') ([] ++ e')
| S_Park_wake_sock : forall g k x w,
    readable g x = true -> g_sockets g = true ->
    Step CRun g (mkL (PRecvPark x w) k) (park_flags x g) (mkL (PRecvAbsorb x WPoll) k) [EWoken]
| S_Park_wake_wc : forall g k x w,
    wakeable g x = true -> g_sockets g = false ->
    Step CRun g (mkL (PRecvPark x w) k) (set_ch x (with_wc (ch g x) 0%N) g) (mkL (PRecvAbsorb x w) k) [EWoken]
| S_Park_timeout : forall g k x p k' e',
    ret react (g_evd g) RTimedOut k = (p, k', e') ->
    Step CTimeout g (mkL (PRecvPark x WTimed) k) g (mkL p k') ([ETimeout] ++ e')
| S_StartRead_running : forall g k p k' e',
    g_running g = true -> ret react (g_evd g) RAlreadyRunning k = (p, k', e') ->
    Step CRun g (mkL PStartRead k) g (mkL p k') ([] ++ e')
| S_StartRead_go : forall g k,
    g_running g = false ->
    Step CRun g (mkL PStartRead k) g (mkL (PStartSpawn (if early then negb (is_nil (c_q (g_ci g))) else false)) k) []
| S_StartSpawn : forall g k needs,
    Step CRun g (mkL (PStartSpawn needs) k) (spawned (alloc_sockets g))
         (mkL (if early then PStartSig needs else PStartSpawned) k) [EFork]
| S_StartSpawned : forall g k, Step CRun g (mkL PStartSpawned k) g (mkL PStartCheck k) []
| S_StartCheck : forall g k,
    Step CRun g (mkL PStartCheck k) g (mkL (PStartSig (negb (is_nil (c_q (g_ci g))))) k) [EDump]
| S_StartSig_yes : forall g k g' e p k' e',
    signal no_limit CI g = (g', e) -> ret react (g_evd g') ROk k = (p, k', e') ->
    Step CRun g (mkL (PStartSig true) k) g' (mkL p k') (e ++ e')
| S_StartSig_no : forall g k p k' e',
    ret react (g_evd g) ROk k = (p, k', e') ->
    Step CRun g (mkL (PStartSig false) k) g (mkL p k') ([] ++ e')
| S_Shutdown_running : forall g k w,
    g_running g = true ->
    Step CRun g (mkL (PShutdown w) k) g (mkL (PSendCS CI None) (KShutdown w :: k)) []
| S_Shutdown_not : forall g k w p k' e',
    g_running g = false -> ret react (g_evd g) RVoid k = (p, k', e') ->
    Step CRun g (mkL (PShutdown w) k) g (mkL p k') ([] ++ e')
| S_JoinTest_running : forall g k,
    g_running g = true ->
    Step CRun g (mkL PJoinTest k) g (mkL PJoinWait k) [EJoin]
| S_JoinTest_not : forall g k p k' e',
    g_running g = false -> ret react (g_evd g) RBadObject k = (p, k', e') ->
    Step CRun g (mkL PJoinTest k) g (mkL p k') ([] ++ e')
| S_JoinWait : forall g k p k' e',
    g_ist g = IExited -> ret react (g_evd (joined (close_sockets g))) ROk k = (p, k', e') ->
    Step CRun g (mkL PJoinWait k) (joined (close_sockets g)) (mkL p k') ([] ++ e')
| S_GetSock : forall g k p k' e',
    ret react (g_evd (alloc_sockets g)) RVoid k = (p, k', e') ->
    Step CRun g (mkL PGetSock k) (alloc_sockets g) (mkL p k') ([] ++ e')
| S_IEntry : forall g k, Step CRun g (mkL PIEntry k) g (mkL PIStartupCS k) [EBegin]
| S_IStartupCS_empty : forall g k,
    c_q (g_co g) = [] -> Step CRun g (mkL PIStartupCS k) g (mkL PIAfterStartup k) [EDump]
| S_IStartupCS_signal : forall g k g' e,
    c_q (g_co g) <> [] -> signal no_limit CO g = (g', e) ->
    Step CRun g (mkL PIStartupCS k) g' (mkL PIAfterStartup k) (e ++ [EDump])
| S_IAfterStartup : forall g k, Step CRun g (mkL PIAfterStartup k) g (mkL PILoop k) []
| S_ILoop_default : forall g k,
    g_evd g = false -> Step CRun g (mkL PILoop k) g (mkL (PRecvAbsorb CI WNever) (KLoop :: k)) []
| S_ILoop_evd : forall g k,
    g_evd g = true -> Step CRun g (mkL PILoop k) g (mkL PIEvLoop k) []
| S_IEvLoop_park : forall g k,
    fd_ok g CI = true -> Step CRun g (mkL PIEvLoop k) g (mkL PIEvWait k) [EPark CI (c_sig (g_ci g))]
| S_IEvLoop_exit : forall g k,
    fd_ok g CI = false -> Step CRun g (mkL PIEvLoop k) g (mkL PIExit k) []
| S_IEvWait : forall g k,
    readable g CI = true -> Step CRun g (mkL PIEvWait k) g (mkL PIEvPoll k) [EWoken]
| S_IEvPoll : forall g k, Step CRun g (mkL PIEvPoll k) g (mkL (PRecvAbsorb CI WPoll) (KLoop :: k)) []
| S_IExit : forall g k, Step CRun g (mkL PIExit k) (exited g) (mkL PIDone k) [EEnd]
| S_Park_wake_io : forall g k x w p k' e',
    wakeable g x = true -> readable g x = false -> g_sockets g = true ->
    ret react (g_evd (park_flags x g)) RIoReady k = (p, k', e') ->
    Step CRun g (mkL (PRecvPark x w) k) (park_flags x g) (mkL p k') ([EWoken] ++ e')
| S_User : forall g k u g' r p k' e',
    user_step u g = (g', r) -> ret react (g_evd g') r k = (p, k', e') ->
    Step CRun g (mkL (PUser u) k) g' (mkL p k') ([] ++ e').

Lemma step_spec : forall c g l g' l' ev, step c g l = Some (g', l', ev) -> Step c g l g' l' ev.
Proof.
  intros c g [p k] g' l' ev H.
  unfold ThreadQ.step, goto, fin in H. simpl in H.
  destruct p; destruct c; try discriminate;
    try (inv H; apply S_IExit; fail);
    try (inv H; apply S_StartSpawn; fail);
    repeat match type of H with
    | context [match ?x with _ => _ end] => lazymatch x with early => fail | _ => destruct x eqn:? end
    | context [if ?x then _ else _] => lazymatch x with early => fail | _ => destruct x eqn:? end
    end; try discriminate; inv H;
    try (econstructor; eauto; congruence);
    try (eapply S_User; [unfold user_step; repeat match goal with Hb : _ = true |- _ => rewrite Hb | Hb : _ = false |- _ => rewrite Hb end; reflexivity
                        | simpl; eassumption]).
  - apply S_IStartupCS_empty. destruct (c_q (g_co g')); [reflexivity | discriminate].
  - eapply S_IStartupCS_signal; eauto. destruct (c_q (g_co g)); [discriminate | congruence].
Qed.

Inductive SysStep (s : sys) : label -> sys -> list ev -> Prop :=
| SS_begin : forall t o, l_pc (s_l s t) = PIdle -> l_k (s_l s t) = [] -> allowed t o = true ->
    SysStep s (LBegin t o) (mkS (s_g s) (upd (s_l s) t (mkL (pc_of_op o) []))) []
| SS_user : forall t c g' l' e, Step c (s_g s) (s_l s t) g' l' e ->
    SysStep s (LStep (U t) c) (mkS g' (upd (s_l s) t l')) e
| SS_int : forall c g' l' e, g_ist (s_g s) = ILive -> Step c (s_g s) (g_il (s_g s)) g' l' e ->
    SysStep s (LStep I c) (mkS (set_il l' g') (s_l s)) e.

Lemma sys_step_spec : forall {s lab s' ev}, sys_step s lab = Some (s', ev) -> SysStep s lab s' ev.
Proof.
  intros s lab s' ev H. destruct lab as [t o | [t|] c]; simpl in H.
  - unfold begin_op in H. destruct (l_pc (s_l s t)) eqn:Hp; try discriminate.
    destruct (l_k (s_l s t)) eqn:Hk; try discriminate. destruct (allowed t o) eqn:Ha; [|discriminate].
    inv H. constructor; assumption.
  - destruct (step c (s_g s) (s_l s t)) as [[[g' l'] e']|] eqn:Hst; [|discriminate]. inv H.
    constructor. apply step_spec. exact Hst.
  - destruct (g_ist (s_g s)) eqn:Hl; try discriminate.
    destruct (step c (s_g s) (g_il (s_g s))) as [[[g' l'] e']|] eqn:Hst; [|discriminate]. inv H.
    constructor; [exact Hl | apply step_spec; exact Hst].
Qed.

Lemma step_upc : forall t c g l g' l' ev, upc_ok t l -> Step c g l g' l' ev -> upc_ok t l'.
Proof.
  intros t c g l g' l' ev Hok HS.
  inv_user HS Hok; unfold upc_ok; simpl; auto;
    try (destruct early; simpl; auto).
Qed.

Lemma step_ipc : forall c g l g' l' ev, ipc_ok l -> Step c g l g' l' ev ->
  ipc_ok l' \/ (l_pc l' = PIDone /\ g' = exited g).
Proof.
  intros c g l g' l' ev Hok HS.
  inv_int HS Hok;
    try (right; split; reflexivity);
    left;
    try (match goal with Hr : ret _ _ _ _ = _ |- _ => eapply ret_internal; [| exact Hr]; eauto end);
    try exact Coq.Init.Logic.I.
Qed.

Lemma is_nil_true : forall A (l : list A), is_nil l = true -> l = [].
Proof. intros A [|x l] H; [reflexivity | discriminate]. Qed.

Lemma Step_const : forall {c g l g' l' ev}, Step c g l g' l' ev -> g_sockets g' = g_sockets g /\ g_evd g' = g_evd g.
Proof.
  intros c g l g' l' ev HS. inversion HS; subst; clear HS; auto;
    try (match goal with Hs : signal _ _ _ = _ |- _ => apply signal_frame in Hs; tauto end);
    try (unfold park_flags; destruct x; try destruct (u_reg (g_usr g)); simpl; auto; fail);
    try (match goal with Hu : user_step _ _ = _ |- _ => apply user_step_frame in Hu; destruct Hu as [? ->]; simpl; auto end).
  - pose proof (absorb_frame absorb_n x g). simpl in *. tauto.
  - unfold spawned; simpl. pose proof (alloc_frame g). simpl in *. tauto.
  - unfold joined; simpl. pose proof (close_frame g). simpl in *. tauto.
  - pose proof (alloc_frame g). simpl in *. tauto.
Qed.

Lemma Step_queues : forall {c g l g' l' ev}, Step c g l g' l' ev -> forall x,
  (c_q (ch g' x) = c_q (ch g x) /\ c_sent (ch g' x) = c_sent (ch g x) /\ c_rcvd (ch g' x) = c_rcvd (ch g x)) \/
  (exists m, l_pc l = PSendCS x m /\ ch g' x = enq (ch g x) m) \/
  (exists w m r, l_pc l = PRecvCS x w /\ c_q (ch g x) = m :: r /\ ch g' x = deq (ch g x) m r).
Proof.
  intros c g l g' l' ev HS y. inversion HS; subst; clear HS; auto;
    try (left; match goal with Hs : signal _ _ _ = _ |- _ => apply signal_frame in Hs; apply Hs end);
    try (left; match goal with Hu : user_step _ _ = _ |- _ => apply user_step_frame in Hu; destruct Hu as [? ->] end;
         destruct y; auto);
    try (left; unfold park_flags; destruct x, y; try destruct (u_reg (g_usr g)); auto; fail).
  - destruct (chan_eqb_spec x y) as [->|Hn].
    + right; left. rewrite ch_set_same. exists m. auto.
    + left. rewrite ch_set_other by exact Hn. auto.
  - left. pose proof (absorb_frame absorb_n x g) as F. simpl in F. destruct F as (_&_&_&_&_&_&_&_&F&_). destruct (F y) as (?&?&?&_). auto.
  - destruct (chan_eqb_spec x y) as [->|Hn].
    + right; right. rewrite ch_set_same. exists w, m, r. auto.
    + left. rewrite ch_set_other by exact Hn. auto.
  - left. pose proof (alloc_frame g) as F. simpl in F. destruct F as (_&_&_&_&_&_&F). destruct (F y) as (?&?&?&_). destruct y; auto.
  - left. pose proof (close_frame g) as F. simpl in F. destruct F as (_&_&_&_&_&_&F). destruct (F y) as (?&?&?&_). destruct y; auto.
  - left. pose proof (alloc_frame g) as F. simpl in F. destruct F as (_&_&_&_&_&_&F). destruct (F y) as (?&?&?&_). auto.
  - left. unfold exited. destruct y; simpl; destruct (g_sockets g); auto.
Qed.

(* the part of wf that speaks about the Thread object's flags only *)
Definition wfg (g : gst) : Prop :=
  g_running g = negb (ist_none (g_ist g)) /\
  (g_ist g = ILive -> g_sockets g = true -> g_alloc g = true /\ g_iopen g = true) /\
  (g_sockets g = false -> g_alloc g = true) /\
  (g_ist g = INone -> g_sockets g = true -> g_alloc g = true -> g_iopen g = true).

Lemma wfg_set_ch : forall c x g, wfg (set_ch c x g) <-> wfg g.
Proof. intros [] x g; unfold wfg; simpl; tauto. Qed.

Lemma wfg_set_usr : forall u g, wfg (set_usr u g) <-> wfg g.
Proof. intros u g; unfold wfg; simpl; tauto. Qed.

Lemma wfg_park_flags : forall x g, wfg g -> wfg (park_flags x g).
Proof. intros x g W. unfold park_flags. destruct x; auto. destruct (u_reg (g_usr g)); auto. Qed.

Lemma wfg_user_step : forall u g g' r, user_step u g = (g', r) -> wfg g -> wfg g'.
Proof. intros u g g' r H W. apply user_step_frame in H. destruct H as [x ->]. apply wfg_set_usr. exact W. Qed.

(* wfg reads five fields only *)
Lemma wfg_same : forall g g', g_sockets g' = g_sockets g -> g_alloc g' = g_alloc g -> g_running g' = g_running g ->
  g_iopen g' = g_iopen g -> g_ist g' = g_ist g -> wfg g -> wfg g'.
Proof. intros g g' H1 H3 H4 H5 H6 W. unfold wfg in *. rewrite H1, H3, H4, H5, H6. exact W. Qed.

Lemma wfg_signal : forall nl c g g' e, signal nl c g = (g', e) -> wfg g -> wfg g'.
Proof.
  intros nl c g g' e H. apply signal_frame in H. destruct H as (H1 & _ & H3 & H4 & H5 & H6 & _). apply wfg_same; assumption.
Qed.

Lemma wfg_absorb : forall c g, wfg g -> wfg (absorb absorb_n c g).
Proof.
  intros c g. pose proof (absorb_frame absorb_n c g) as H. simpl in H.
  destruct H as (H1 & _ & H3 & H4 & H5 & H6 & _). apply wfg_same; assumption.
Qed.

Lemma wfg_alloc : forall g, wfg g -> wfg (alloc_sockets g).
Proof.
  intros g W. unfold alloc_sockets. destruct (g_sockets g && negb (g_alloc g)) eqn:Hc; [|exact W].
  apply andb_true_iff in Hc. destruct Hc as [Hs Ha]. apply negb_true_iff in Ha.
  unfold wfg in *; simpl. destruct W as (W1 & W2 & W3 & W4). repeat split; auto.
Qed.

Lemma wfg_spawn : forall g, wfg g -> g_ist g = INone -> wfg (spawned (alloc_sockets g)).
Proof.
  intros g (W1 & W2 & W3 & W4) Hn. unfold wfg, spawned, alloc_sockets.
  destruct (g_sockets g) eqn:Hs; destruct (g_alloc g) eqn:Ha; simpl; rewrite ?Hs, ?Ha; simpl;
    repeat split; intros; auto; try congruence.
Qed.

Lemma wfg_exited : forall g, wfg g -> g_ist g = ILive -> wfg (exited g).
Proof.
  intros g (W1 & W2 & W3 & W4) Hl. unfold wfg, exited; simpl. rewrite Hl in W1. simpl in W1.
  repeat split; intros; auto; try congruence.
Qed.

Lemma Step_wfg : forall {c g l g' l' ev}, wfg g -> Step c g l g' l' ev ->
  (forall n, l_pc l = PStartSpawn n -> g_running g = false) -> (l_pc l = PIExit -> g_ist g = ILive) -> wfg g'.
Proof.
  intros c g l g' l' ev W HS Hsp Hex.
  inversion HS; subst; clear HS; auto;
    try (eapply wfg_signal; eauto; fail);
    try (apply wfg_park_flags; assumption);
    try (eapply wfg_user_step; eauto; fail);
    try (apply wfg_set_ch; exact W).
  - apply wfg_absorb; exact W.
  - (* spawn *)
    assert (Hr : g_running g = false) by (eapply Hsp; reflexivity).
    apply wfg_spawn; [exact W|].
    destruct W as (W1 & _). rewrite Hr in W1. destruct (g_ist g); simpl in W1; congruence.
  - (* join *)
    unfold wfg in *. unfold joined, close_sockets; destruct (g_sockets g) eqn:Hs; simpl; rewrite ?Hs;
      destruct W as (W1 & W2 & W3 & W4); repeat split; auto; try congruence.
  - apply wfg_alloc; exact W.
  - apply wfg_exited; [exact W | apply Hex; reflexivity].
Qed.

(* which steps touch _threadRunning / the native thread *)
Lemma Step_running : forall {c g l g' l' ev}, Step c g l g' l' ev ->
  (exists n, l_pc l = PStartSpawn n) \/ l_pc l = PJoinWait \/ l_pc l = PIExit \/
  (g_running g' = g_running g /\ g_ist g' = g_ist g /\ g_il g' = g_il g /\ g_gen g' = g_gen g).
Proof.
  intros c g l g' l' ev HS. inversion HS; subst; clear HS; simpl; eauto;
    try (right; right; right;
         try match goal with Hs : signal _ _ _ = _ |- _ => apply signal_frame in Hs end;
         try match goal with Hu : user_step _ _ = _ |- _ => apply user_step_frame in Hu; destruct Hu as [? ->] end;
         unfold park_flags;
         try match goal with x : chanid |- _ => destruct x end;
         try match goal with |- context [if u_reg ?u then _ else _] => destruct (u_reg u) end; simpl; tauto).
  - right; right; right. pose proof (absorb_frame absorb_n x g). simpl in *. tauto.
  - right; right; right. pose proof (alloc_frame g). simpl in *. tauto.
Qed.

Lemma wf_wfg : forall s, wf smode emode s -> wfg (s_g s).
Proof. intros s W. destruct W. unfold wfg. auto. Qed.

Lemma wf_init : wf smode emode (sys0 smode emode).
Proof.
  constructor; simpl; auto; try discriminate.
  - intros H. rewrite H. reflexivity.
  - intros _ H1 H2. rewrite H1 in H2. discriminate.
  - intros t. exact Coq.Init.Logic.I.
Qed.

Lemma wf_step : forall s lab s' ev, wf smode emode s -> sys_step s lab = Some (s', ev) -> wf smode emode s'.
Proof.
  intros s lab s' ev W H. pose proof (wf_wfg s W) as Wg.
  destruct (sys_step_spec H) as [t o Hp Hk Ha | t c g' l' e' Hst | c g' l' e' Hl Hst]; clear H.
  - (* begin *)
    destruct W. constructor; simpl; auto.
    + intros x. unfold upd. destruct (Nat.eqb_spec x t); [subst x | auto].
      unfold upc_ok; simpl. destruct o as [[] [?|] | | | | | | []]; simpl in *; auto; apply Nat.eqb_eq; exact Ha.
    + intros n. unfold upd. destruct (Nat.eqb_spec 0 t); [subst t | eauto].
      simpl. destruct o; simpl; try discriminate.
  - (* a user thread's step *)
    pose proof (Step_const Hst) as [Hc1 Hc2].
    assert (Hu : upc_ok t (s_l s t)) by (apply (wf_upc _ _ _ W)).
    assert (Hsp0 := wf_start_idle _ _ _ W). assert (Hup := wf_upc _ _ _ W). assert (Hip := wf_ipc _ _ _ W).
    assert (Hws := wf_sockets _ _ _ W). assert (Hwe := wf_evd _ _ _ W). clear W.
    destruct (s_l s t) as [p k] eqn:El.
    assert (Hsp : forall n, l_pc (mkL p k) = PStartSpawn n -> g_running (s_g s) = false).
    { simpl. intros n Hn. subst p. pose proof (upc_life _ _ Hu eq_refl). subst t. apply (Hsp0 n). rewrite El. reflexivity. }
    assert (Hex : l_pc (mkL p k) = PIExit -> g_ist (s_g s) = ILive) by (simpl; intros ->; destruct Hu).
    destruct (Step_wfg Wg Hst Hsp Hex) as (G1 & G2 & G3 & G4).
    constructor; simpl; auto; try congruence.
    + intros x. unfold upd. destruct (Nat.eqb_spec x t); [subst x | apply Hup].
      eapply step_upc; eauto.
    + (* the internal thread's place *)
      intros Hl'. destruct (Step_running Hst) as [[n Hn] | [Hj | [Hx | (R1 & R2 & R3 & R4)]]]; simpl in *.
      * subst p. inversion Hst; subst. simpl. exact Coq.Init.Logic.I.
      * subst p. inversion Hst; subst. simpl in Hl'. discriminate.
      * subst p. destruct Hu.
      * rewrite R3. apply Hip. congruence.
    + (* a pending spawn means the thread is not running *)
      intros n. unfold upd. destruct (Nat.eqb_spec 0 t) as [Ht | Ht].
      * (* it has just found that no thread is running *)
        subst t. intros Hn. inversion Hst; subst; simpl in Hn; try discriminate Hn; try assumption;
          try (match goal with Hr : ret _ _ _ _ = _ |- _ => apply ret_target in Hr; rewrite Hn in Hr; discriminate Hr end).
        destruct early; discriminate Hn.
      * intros Hn. destruct (Step_running Hst) as [[n' Hn'] | [Hj | [Hx | (R1 & R2 & R3 & R4)]]]; simpl in *;
          [subst p; destruct Ht; symmetry; exact (upc_life _ _ Hu eq_refl) .. | subst p; destruct Hu | rewrite R1; eapply Hsp0; eauto].
  - (* the internal thread's step *)
    pose proof (Step_const Hst) as [Hc1 Hc2].
    assert (Hi : ipc_ok (g_il (s_g s))) by (apply (wf_ipc _ _ _ W); exact Hl).
    assert (Hsp0 := wf_start_idle _ _ _ W). assert (Hup := wf_upc _ _ _ W).
    assert (Hws := wf_sockets _ _ _ W). assert (Hwe := wf_evd _ _ _ W). clear W.
    destruct (g_il (s_g s)) as [p k] eqn:El.
    assert (Hsp : forall n, l_pc (mkL p k) = PStartSpawn n -> g_running (s_g s) = false) by (simpl; intros n ->; destruct Hi).
    destruct (Step_wfg Wg Hst Hsp (fun _ => Hl)) as (G1 & G2 & G3 & G4).
    constructor; simpl; auto; try congruence.
    + intros Hl'. destruct (step_ipc _ _ _ _ _ _ Hi Hst) as [Hok | [_ Hx]]; [exact Hok|].
      subst g'. simpl in Hl'. discriminate.
    + intros n Hn. destruct (Step_running Hst) as [[n' Hn'] | [Hj | [Hx | (R1 & R2 & R3 & R4)]]]; simpl in *.
      * subst p. destruct Hi.
      * subst p. destruct Hi.
      * subst p. inversion Hst; subst. simpl. eapply Hsp0; eauto.
      * rewrite R1. eapply Hsp0; eauto.
Qed.

Theorem reachable_wf : forall s, reachable_if ok smode emode s -> wf smode emode s.
Proof.
  intros s H. induction H.
  - apply wf_init.
  - eapply wf_step; eauto.
Qed.

Definition fifo (g : gst) : Prop := forall c, c_sent (ch g c) = c_rcvd (ch g c) ++ c_q (ch g c).

(* every step extends the two histories of every queue (by nothing, or by the Message appended / removed) *)
Definition hist_ext (g g' : gst) : Prop :=
  forall c, exists a b, c_sent (ch g' c) = c_sent (ch g c) ++ a /\ c_rcvd (ch g' c) = c_rcvd (ch g c) ++ b.

Lemma hist_same : forall g g',
  (forall c, c_q (ch g' c) = c_q (ch g c) /\ c_sent (ch g' c) = c_sent (ch g c) /\ c_rcvd (ch g' c) = c_rcvd (ch g c)) ->
  (fifo g -> fifo g') /\ hist_ext g g'.
Proof.
  intros g g' H. split.
  - intros F c. destruct (H c) as (H1 & H2 & H3). rewrite H1, H2, H3. apply F.
  - intros c. destruct (H c) as (H1 & H2 & H3). exists [], []. rewrite !app_nil_r. auto.
Qed.

Lemma Step_hist : forall c g l g' l' ev, Step c g l g' l' ev -> (fifo g -> fifo g') /\ hist_ext g g'.
Proof.
  intros c g l g' l' ev HS. split; [intros F x; specialize (F x) | intros x];
    destruct (Step_queues HS x) as [(Q1 & Q2 & Q3) | [(m & _ & E) | (w & m & r & _ & Q & E)]];
    rewrite ?Q1, ?Q2, ?Q3, ?E; simpl.
  - exact F.
  - rewrite F, app_assoc. reflexivity.
  - rewrite F, Q, <- app_assoc. reflexivity.
  - exists [], []. rewrite !app_nil_r. auto.
  - exists [m], []. rewrite app_nil_r. auto.
  - exists [], [m]. rewrite app_nil_r. auto.
Qed.

Lemma sys_step_hist : forall s lab s' ev, sys_step s lab = Some (s', ev) ->
  (fifo (s_g s) -> fifo (s_g s')) /\ hist_ext (s_g s) (s_g s').
Proof.
  intros s lab s' ev H.
  destruct (sys_step_spec H) as [t o _ _ _ | t c g' l' e' Hst | c g' l' e' _ Hst]; simpl.
  - apply hist_same. auto.
  - eapply Step_hist. exact Hst.
  - apply Step_hist in Hst. destruct Hst as [F E]. split.
    + intros F0 c'. specialize (F F0 c'). destruct c'; exact F.
    + intros c'. specialize (E c'). destruct c'; exact E.
Qed.

Theorem reachable_fifo : forall s, reachable_if ok smode emode s -> fifo (s_g s).
Proof.
  intros s H. induction H.
  - intros []; reflexivity.
  - eapply sys_step_hist; eauto.
Qed.

End Wf.
