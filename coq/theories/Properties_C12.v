(* C12 -- property theorems only: each is closed by [exact] of a lemma proved elsewhere. *)
From Coq Require Import List NArith.
From Muscle Require Import Common.LE Gw.Tunnel Gw.TunnelProofs Gw.TunnelSound Gw.TunnelSender Gw.TunnelComplete Gw.TunnelTheorems Gw.TunnelMulti.
From Muscle Require Import Gw.MiniTunnel Gw.MiniTunnelProofs Gw.MiniTunnelDrain.
From Muscle Require Import Gw.Packetized Gw.PacketizedProofs Gw.TunnelOverPacketized.
From Muscle Require Import Gw.TunnelMsg Gw.MiniTunnelMsg.
From Muscle Require Msg.MsgDefs Msg.MsgModel Msg.MsgExamples.
Import ListNotations.
Local Open Scope N_scope.

(* First clause: over loss / duplication / reordering / foreign datagrams / arbitrary bytes from other
   addresses, whatever is delivered under a sender's address is one of that sender's Messages. *)
Theorem C12_tunnel_sound :
  forall (rc : rcfg) (who : addr -> option sender_run) (net : list (addr * packet)) t out,
    rc_misc rc = false -> 4 <= rc_mtu rc ->
    (forall a s, who a = Some s -> sr_ok s) ->
    (forall a s p, who a = Some s -> In (a, p) net -> In p (sr_packets s) \/ foreign (rc_magic rc) p) ->
    recv_all rc [] net = (t, out) ->
    forall a s m, who a = Some s -> In (a, m) out -> In m (sr_msgs s).
Proof. exact tunnel_sound. Qed.
Print Assumptions C12_tunnel_sound.

(* First clause with SetAllowMiscIncomingData on or off: the only extra deliveries are non-tunnel datagrams, verbatim. *)
Theorem C12_tunnel_sound_misc :
  forall (rc : rcfg) (who : addr -> option sender_run) (net : list (addr * packet)) t out,
    4 <= rc_mtu rc ->
    (forall a s, who a = Some s -> sr_ok s) ->
    (forall a s p, who a = Some s -> In (a, p) net -> In p (sr_packets s) \/ foreign (rc_magic rc) p) ->
    recv_all rc [] net = (t, out) ->
    forall a s m, who a = Some s -> In (a, m) out ->
      In m (sr_msgs s) \/ exists p, In (a, p) net /\ misc_passed rc p m.
Proof. exact tunnel_sound_misc. Qed.
Print Assumptions C12_tunnel_sound_misc.

(* Second clause: every packet once and in order => exactly the completely written Messages that fit
   the receiver's limit, once each, in order; every MTU, every call pattern. *)
Theorem C12_tunnel_complete :
  forall rc c a id0 ops st pkts t0,
    scfg_ok c -> compat c rc -> id0 < two32 -> no_setid ops ->
    N.of_nat (length (added ops)) <= two32 ->
    Forall (fun m => lenN m < two32) (added ops) ->
    srun c (s_init id0) ops = (st, pkts) ->
    s_pkt st = [] ->
    tbl_wf t0 -> tbl_find a t0 = None ->
    exists done,
      added ops = done ++ s_q st
      /\ snd (recv_all rc t0 (map (pair a) pkts)) = map (pair a) (filter (fits rc) done).
Proof. exact tunnel_complete. Qed.
Print Assumptions C12_tunnel_complete.

(* Corollary of the second clause: any script followed by one DoOutput call that is not cut short
   (fuel adequacy of the output loop): every Message that fits is delivered exactly once, in order. *)
Theorem C12_tunnel_complete_drained :
  forall rc c a id0 ops mb bud t0,
    scfg_ok c -> compat c rc -> id0 < two32 -> no_setid ops ->
    N.of_nat (length (added ops)) <= two32 ->
    Forall (fun m => lenN m < two32) (added ops) ->
    (let st1 := fst (srun c (s_init id0) ops) in
     N.of_nat (out_fuel st1) * sc_mtu c < mb /\ N.of_nat (out_fuel st1) <= bud) ->
    tbl_wf t0 -> tbl_find a t0 = None ->
    snd (recv_all rc t0 (map (pair a) (snd (srun c (s_init id0) (ops ++ [SOut mb bud])))))
    = map (pair a) (filter (fits rc) (added ops)).
Proof. exact tunnel_complete_drained. Qed.
Print Assumptions C12_tunnel_complete_drained.

(* Several sources: with at most MAX_NUM_RECEIVE_STATES+1 source addresses in play (no LRU eviction) what
   is delivered under address a is what would be delivered had only a's datagrams arrived -- arbitrary
   datagrams from everybody. *)
Theorem C12_tunnel_noninterference :
  forall rc (L : list addr) net a,
    N.of_nat (length L) <= MAX_STATES + 1 ->
    (forall b p, In (b, p) net -> In b L) -> In a L ->
    filter (from a) (snd (recv_all rc [] net)) = snd (recv_all rc [] (filter (from a) net)).
Proof. exact tunnel_noninterference. Qed.
Print Assumptions C12_tunnel_noninterference.

(* Second clause for several senders whose in-order streams are interleaved arbitrarily. *)
Theorem C12_tunnel_complete_multi :
  forall rc (L : list addr) net c a id0 ops st pkts,
    N.of_nat (length L) <= MAX_STATES + 1 ->
    (forall b p, In (b, p) net -> In b L) -> In a L ->
    scfg_ok c -> compat c rc -> id0 < two32 -> no_setid ops ->
    N.of_nat (length (added ops)) <= two32 ->
    Forall (fun m => lenN m < two32) (added ops) ->
    srun c (s_init id0) ops = (st, pkts) -> s_pkt st = [] ->
    filter (from a) net = map (pair a) pkts ->
    exists done,
      added ops = done ++ s_q st
      /\ filter (from a) (snd (recv_all rc [] net)) = map (pair a) (filter (fits rc) done).
Proof. exact tunnel_complete_multi. Qed.
Print Assumptions C12_tunnel_complete_multi.

(* SetSourceExclusionID: packets carrying the receiver's own non-zero id deliver nothing and touch no state. *)
Theorem C12_tunnel_self_exclusion :
  forall rc s t a p,
    rc_misc rc = false -> sr_ok s ->
    rc_sex rc <> 0 -> sc_sex (sr_cfg s) = rc_sex rc ->
    In p (sr_packets s) ->
    recv_packet rc t a p = (t, []).
Proof. exact tunnel_self_exclusion. Qed.
Print Assumptions C12_tunnel_self_exclusion.

(* The premise "ids distinct mod 2^32" cannot be dropped: with a repeated id a reordering network splices. *)
Theorem C12_tunnel_wrap_refuted :
  exists net,
    (forall p, In p net -> In p (snd (srun wrap_cfg (s_init 0) wrap_ops)))
    /\ snd (recv_all wrap_rc [] (map (pair 5) net)) = [(5, [Byte.x01; Byte.x02; Byte.x13; Byte.x14])].
Proof. exact tunnel_wrap_refuted. Qed.
Print Assumptions C12_tunnel_wrap_refuted.

(* non-vacuity of the premises above *)
Example C12_premises_satisfiable :
  sr_ok ex_run /\ sc_mtu (sr_cfg ex_run) <= rc_mtu ex_rc /\ compat ex_cfg ex_rc.
Proof. exact ex_run_ok. Qed.
Example C12_multi_nontrivial :
  let p := sr_packets ex_run in
  let net := [(5, nth 0 p []); (9, [Byte.x00; Byte.x01]); (6, nth 0 p []); (5, nth 1 p []); (6, nth 1 p []); (5, nth 2 p [])] in
  (forall b q, In (b, q) net -> In b [5; 6; 9])
  /\ filter (from 5) (snd (recv_all ex_rc [] net)) = [(5, repeat Byte.x41 9); (5, [])]
  /\ filter (from 6) (snd (recv_all ex_rc [] net)) = [(6, repeat Byte.x41 9)].
Proof. exact multi_nontrivial. Qed.
Example C12_self_exclusion_nontrivial :
  rc_misc ex_rc7 = false /\ rc_sex ex_rc7 <> 0 /\ sc_sex (sr_cfg ex_run) = rc_sex ex_rc7
  /\ sr_packets ex_run <> [] /\ snd (recv_all ex_rc7 [] (map (pair 5) (sr_packets ex_run))) = [].
Proof. exact ex_self_exclusion. Qed.
Example C12_premises_nontrivial :
  length (sr_packets ex_run) = 8%nat
  /\ snd (recv_all ex_rc [] (map (pair 5) (sr_packets ex_run))) = [(5, repeat Byte.x41 9); (5, [])]
  /\ s_pkt (fst (srun ex_cfg (s_init 4294967295) ex_ops)) = []
  /\ s_q (fst (srun ex_cfg (s_init 4294967295) ex_ops)) = [].
Proof. exact ex_run_nontrivial. Qed.

(* ---------------------------------------------------------------- MiniPacketTunnelIOGateway *)

(* zlib (ZLibCodec::Deflate(independent=true) / Inflate) appears as the premise [inflate (deflate x) = x].
   A receiver MTU below the sender's (truncated datagrams) is covered for senders that do not compress. *)
Theorem C12_mini_sound :
  forall (deflate : N -> list Byte.byte -> option (list Byte.byte))
         (inflate : list Byte.byte -> option (list Byte.byte)),
    (forall lvl x d, deflate lvl x = Some d -> inflate d = Some x) ->
    forall (rc : rcfg) (who : addr -> option mini_run) (net : list (addr * packet)),
      rc_misc rc = false -> PHS <= rc_mtu rc ->
      (forall a s, who a = Some s -> mr_ok s /\ (mc_level (mr_cfg s) = 0 \/ mc_mtu (mr_cfg s) <= rc_mtu rc)) ->
      (forall a s p, who a = Some s -> In (a, p) net -> In p (mr_packets deflate s) \/ foreign (rc_magic rc) p) ->
      forall a s m, who a = Some s -> In (a, m) (mrecv_all inflate rc net) -> In m (mr_msgs s).
Proof. exact mini_sound. Qed.
Print Assumptions C12_mini_sound.

Theorem C12_mini_complete :
  forall (deflate : N -> list Byte.byte -> option (list Byte.byte))
         (inflate : list Byte.byte -> option (list Byte.byte)),
    (forall lvl x d, deflate lvl x = Some d -> inflate d = Some x) ->
    forall rc c a pid0 ops st pkts,
      mcfg_ok c -> rc_misc rc = false ->
      mc_magic c = rc_magic rc -> sex_ok rc (mc_sex c) = true -> mc_mtu c <= rc_mtu rc ->
      pid0 < 2 ^ 24 -> no_msetid ops ->
      Forall (fun m => lenN m < two32) (madded ops) ->
      mrun deflate c (m_init pid0) ops = (st, pkts) ->
      m_pkt st = [] ->
      exists done,
        madded ops = done ++ m_q st
        /\ mrecv_all inflate rc (map (pair a) pkts) = map (pair a) (filter (mfits c) done).
Proof. exact mini_complete. Qed.
Print Assumptions C12_mini_complete.

Theorem C12_mini_complete_drained :
  forall (deflate : N -> list Byte.byte -> option (list Byte.byte))
         (inflate : list Byte.byte -> option (list Byte.byte)),
    (forall lvl x d, deflate lvl x = Some d -> inflate d = Some x) ->
    forall rc c a pid0 ops mb bud,
      mcfg_ok c -> rc_misc rc = false ->
      mc_magic c = rc_magic rc -> sex_ok rc (mc_sex c) = true -> mc_mtu c <= rc_mtu rc ->
      pid0 < 2 ^ 24 -> no_msetid ops ->
      Forall (fun m => lenN m < two32) (madded ops) ->
      (let st1 := fst (mrun deflate c (m_init pid0) ops) in
       N.of_nat (mout_fuel st1) * mc_mtu c < mb /\ N.of_nat (mout_fuel st1) <= bud) ->
      mrecv_all inflate rc (map (pair a) (snd (mrun deflate c (m_init pid0) (ops ++ [MOut mb bud]))))
      = map (pair a) (filter (mfits c) (madded ops)).
Proof. exact mini_complete_drained. Qed.
Print Assumptions C12_mini_complete_drained.

(* several senders: the mini receiver keeps no state, so sources cannot interfere (any number of them) *)
Theorem C12_mini_noninterference :
  forall (inflate : list Byte.byte -> option (list Byte.byte)) rc a net,
    filter (mfrom a) (mrecv_all inflate rc net) = mrecv_all inflate rc (filter (mfrom a) net).
Proof. exact mini_noninterference. Qed.
Print Assumptions C12_mini_noninterference.

(* non-vacuity: a codec satisfying the zlib premise exists, and a run satisfying the other premises
   exercises the compressed path, the uncompressed-with-patched-header path, the drop of an oversize
   Message and the 24-bit packet-id wrap *)
Example C12_mini_premises_satisfiable :
  (forall lvl x d, toy_deflate lvl x = Some d -> toy_inflate d = Some x)
  /\ mr_ok toy_run /\ mc_mtu (mr_cfg toy_run) <= rc_mtu toy_rc
  /\ mc_magic toy_cfg = rc_magic toy_rc /\ sex_ok toy_rc (mc_sex toy_cfg) = true.
Proof. exact (conj toy_codec_ok toy_run_ok). Qed.
Example C12_mini_premises_nontrivial :
  map (@length Byte.byte) (mr_packets toy_deflate toy_run) = [13; 17]%nat
  /\ mrecv_all toy_inflate toy_rc (map (pair 5) (mr_packets toy_deflate toy_run)) = [(5, toy_m1); (5, toy_m2); (5, [Byte.x09])]
  /\ m_pid (fst (mrun toy_deflate toy_cfg (m_init 16777215) toy_ops)) = 1.
Proof. exact toy_run_nontrivial. Qed.

(* ---------------------------------------------------------------- PacketizedProxyDataIO (the TCP transport of testpackettunnel) *)

(* PacketizedProxyDataIO implements the premise "the transport delivers every packet once and in order" (the four
   theorems below).  Writing side: what the child took plus what is still buffered is the framing of the packets
   Write() accepted, for every acceptance pattern of the child. *)
Theorem C12_packetized_write_stream :
  forall mtu ops st st' out rs,
    pw_ok st -> wops_nonempty ops ->
    pwrites mtu st ops = (st', out, rs) ->
    pw_ok st' /\ out ++ pw_rest st' = pw_rest st ++ frames (taken ops rs).
Proof. exact packetized_write_stream. Qed.
Print Assumptions C12_packetized_write_stream.

Theorem C12_packetized_read_stream :
  forall mtu script ps st stream st' stream' rs,
    mtu < two32 -> Forall (pkt_ok mtu) ps -> Forall (fun x => mtu <= fst (fst x)) script ->
    rep st stream ps ->
    preads mtu st stream script = (st', stream', rs) ->
    Forall (fun r => r <> None) rs
    /\ exists ps', ps = handed rs ++ ps' /\ rep st' stream' ps'.
Proof. exact packetized_read_stream. Qed.
Print Assumptions C12_packetized_read_stream.

Theorem C12_packetized_transport_perfect :
  forall mtu wops wst out wrs script rst rest rrs,
    mtu < two32 -> wops_nonempty wops ->
    Forall (fun x => mtu <= fst (fst x)) script ->
    pwrites mtu pw_init wops = (wst, out, wrs) ->
    pw_buffered wst = false ->
    preads mtu pr_init out script = (rst, rest, rrs) ->
    rest = [] -> pr_hdr rst = [] ->
    handed rrs = taken wops wrs /\ Forall (fun r => r <> None) rrs.
Proof. exact packetized_transport_perfect. Qed.
Print Assumptions C12_packetized_transport_perfect.

(* with a fair reader (every Read() finds bytes available, as many calls as the stream has bytes) the end of the
   stream IS reached: every accepted packet is handed over *)
Theorem C12_packetized_transport_delivers_all :
  forall mtu wops wst out wrs script rst rest rrs,
    mtu < two32 -> wops_nonempty wops ->
    Forall (fun x => mtu <= fst (fst x) /\ 0 < snd (fst x) /\ 0 < snd x) script ->
    (length out <= length script)%nat ->
    pwrites mtu pw_init wops = (wst, out, wrs) ->
    pw_buffered wst = false ->
    preads mtu pr_init out script = (rst, rest, rrs) ->
    handed rrs = taken wops wrs /\ rest = [] /\ Forall (fun r => r <> None) rrs.
Proof. exact packetized_transport_delivers_all. Qed.
Print Assumptions C12_packetized_transport_delivers_all.

Example C12_packetized_nontrivial :
  let wops := [WWrite [Byte.x01; Byte.x02; Byte.x03] 2 0; WWrite [Byte.x09] 1 9; WWrite [Byte.x09] 9 9; WFlush 99] in
  let script := [(8, 3, 9); (8, 0, 0); (8, 1, 1); (8, 9, 2); (8, 9, 9); (8, 9, 9)] in
  let '(wst, out, wrs) := pwrites 8 pw_init wops in
  let '(rst, rest, rrs) := preads 8 pr_init out script in
  wops_nonempty wops /\ pw_buffered wst = false /\ rest = [] /\ pr_hdr rst = []
  /\ wrs = [WTook 3; WTook 0; WTook 1] /\ handed rrs = [[Byte.x01; Byte.x02; Byte.x03]; [Byte.x09]].
Proof. exact packetized_nontrivial. Qed.

(* ---------------------------------------------------------------- the read loop; end to end over PacketizedProxyDataIO *)

(* one DoInput(maxBytes) call over a device holding several packets = the consumed prefix, packet by packet *)
Theorem C12_recv_loop_prefix :
  forall rc queue t maxBytes total t' out rest,
    recv_loop rc t maxBytes total queue = (t', out, rest) ->
    exists n, rest = skipn n queue /\ recv_all rc t (firstn n queue) = (t', out).
Proof. exact recv_loop_prefix. Qed.
Print Assumptions C12_recv_loop_prefix.

Theorem C12_mrecv_loop_prefix :
  forall (inflate : list Byte.byte -> option (list Byte.byte)) rc queue maxBytes total out rest,
    mrecv_loop inflate rc maxBytes total queue = (out, rest) ->
    exists n, rest = skipn n queue /\ mrecv_all inflate rc (firstn n queue) = out.
Proof. exact mrecv_loop_prefix. Qed.
Print Assumptions C12_mrecv_loop_prefix.

(* the tunnel over the packetizer over a byte stream cut up arbitrarily on both sides *)
Theorem C12_tunnel_over_packetized_complete :
  forall rc c a id0 ops st pkts t0 mtu wops wst out wrs script rst rest rrs,
    scfg_ok c -> compat c rc -> id0 < two32 -> no_setid ops ->
    N.of_nat (length (added ops)) <= two32 ->
    Forall (fun m => lenN m < two32) (added ops) ->
    srun c (s_init id0) ops = (st, pkts) -> s_pkt st = [] ->
    tbl_wf t0 -> tbl_find a t0 = None ->
    mtu < two32 -> wops_nonempty wops -> Forall (fun x => mtu <= fst (fst x)) script ->
    pwrites mtu pw_init wops = (wst, out, wrs) -> taken wops wrs = pkts -> pw_buffered wst = false ->
    preads mtu pr_init out script = (rst, rest, rrs) -> rest = [] -> pr_hdr rst = [] ->
    exists done,
      added ops = done ++ s_q st
      /\ snd (recv_all rc t0 (map (pair a) (handed rrs))) = map (pair a) (filter (fits rc) done).
Proof.
  exact (fun rc c a id0 ops st pkts t0 mtu wops wst out wrs script rst rest rrs H1 H2 H3 H4 H5 H6 H7 H8 H9 H10 =>
           over_packetized_perfect
             (fun l => exists done, added ops = done ++ s_q st
              /\ snd (recv_all rc t0 (map (pair a) l)) = map (pair a) (filter (fits rc) done))
             (tunnel_complete rc c a id0 ops st pkts t0 H1 H2 H3 H4 H5 H6 H7 H8 H9 H10)).
Qed.
Print Assumptions C12_tunnel_over_packetized_complete.

Theorem C12_tunnel_over_packetized_fair :
  forall rc c a id0 ops st pkts t0 mtu wops wst out wrs script rst rest rrs,
    scfg_ok c -> compat c rc -> id0 < two32 -> no_setid ops ->
    N.of_nat (length (added ops)) <= two32 ->
    Forall (fun m => lenN m < two32) (added ops) ->
    srun c (s_init id0) ops = (st, pkts) -> s_pkt st = [] ->
    tbl_wf t0 -> tbl_find a t0 = None ->
    mtu < two32 -> wops_nonempty wops ->
    Forall (fun x => mtu <= fst (fst x) /\ 0 < snd (fst x) /\ 0 < snd x) script ->
    (length out <= length script)%nat ->
    pwrites mtu pw_init wops = (wst, out, wrs) -> taken wops wrs = pkts -> pw_buffered wst = false ->
    preads mtu pr_init out script = (rst, rest, rrs) ->
    exists done,
      added ops = done ++ s_q st
      /\ snd (recv_all rc t0 (map (pair a) (handed rrs))) = map (pair a) (filter (fits rc) done).
Proof.
  exact (fun rc c a id0 ops st pkts t0 mtu wops wst out wrs script rst rest rrs H1 H2 H3 H4 H5 H6 H7 H8 H9 H10 =>
           over_packetized_fair
             (fun l => exists done, added ops = done ++ s_q st
              /\ snd (recv_all rc t0 (map (pair a) l)) = map (pair a) (filter (fits rc) done))
             (tunnel_complete rc c a id0 ops st pkts t0 H1 H2 H3 H4 H5 H6 H7 H8 H9 H10)).
Qed.
Print Assumptions C12_tunnel_over_packetized_fair.

Theorem C12_mini_over_packetized_complete :
  forall (deflate : N -> list Byte.byte -> option (list Byte.byte))
         (inflate : list Byte.byte -> option (list Byte.byte)),
    (forall lvl x d, deflate lvl x = Some d -> inflate d = Some x) ->
    forall rc c a pid0 ops st pkts mtu wops wst out wrs script rst rest rrs,
      mcfg_ok c -> rc_misc rc = false ->
      mc_magic c = rc_magic rc -> sex_ok rc (mc_sex c) = true -> mc_mtu c <= rc_mtu rc ->
      pid0 < 2 ^ 24 -> no_msetid ops ->
      Forall (fun m => lenN m < two32) (madded ops) ->
      mrun deflate c (m_init pid0) ops = (st, pkts) -> m_pkt st = [] ->
      mtu < two32 -> wops_nonempty wops -> Forall (fun x => mtu <= fst (fst x)) script ->
      pwrites mtu pw_init wops = (wst, out, wrs) -> taken wops wrs = pkts -> pw_buffered wst = false ->
      preads mtu pr_init out script = (rst, rest, rrs) -> rest = [] -> pr_hdr rst = [] ->
      exists done,
        madded ops = done ++ m_q st
        /\ mrecv_all inflate rc (map (pair a) (handed rrs)) = map (pair a) (filter (mfits c) done).
Proof.
  exact (fun deflate inflate Hz rc c a pid0 ops st pkts mtu wops wst out wrs script rst rest rrs H1 H2 H3 H4 H5 H6 H7 H8 H9 H10 =>
           over_packetized_perfect
             (fun l => exists done, madded ops = done ++ m_q st
              /\ mrecv_all inflate rc (map (pair a) l) = map (pair a) (filter (mfits c) done))
             (mini_complete deflate inflate Hz rc c a pid0 ops st pkts H1 H2 H3 H4 H5 H6 H7 H8 H9 H10)).
Qed.
Print Assumptions C12_mini_over_packetized_complete.

Example C12_e2e_nontrivial :
  let '(wst, out, wrs) := pwrites 30 pw_init e2e_wops in
  let '(rst, rest, rrs) := preads 30 pr_init out e2e_script in
  length e2e_pkts = 3%nat /\ taken e2e_wops wrs = e2e_pkts /\ pw_buffered wst = false /\ rest = [] /\ pr_hdr rst = []
  /\ snd (recv_all e2e_rc [] (map (pair 0) (handed rrs))) = [(0, repeat Byte.x41 9); (0, [Byte.x07])].
Proof. exact e2e_nontrivial. Qed.

(* ---------------------------------------------------------------- at the level of Messages (no slave gateway) *)

(* ProxyIOGateway without a slave gateway flattens each Message into the buffer handed to the tunnel and unflattens
   each reassembled buffer (Msg/ is C01's model of Message::Flatten/Unflatten): every Message delivered under a
   sender's address is the round-trip image rt M of a Message M that sender was given -- and flattens to M's bytes. *)
Theorem C12_tunnel_message_sound :
  forall (rc : rcfg) (who : addr -> option msg_run) (net : list (addr * packet)) t out,
    rc_misc rc = false -> 4 <= rc_mtu rc ->
    (forall a s, who a = Some s -> msg_run_ok s) ->
    (forall a s p, who a = Some s -> In (a, p) net -> In p (sr_packets (lower_run s)) \/ foreign (rc_magic rc) p) ->
    recv_all rc [] net = (t, out) ->
    forall a s D, who a = Some s -> In (a, D) (deliver_msgs out) ->
      exists M, In M (sent_msgs (mr_mops s)) /\ D = MsgModel.rt M /\ MsgModel.flatten D = MsgModel.flatten M.
Proof. exact tunnel_message_sound. Qed.
Print Assumptions C12_tunnel_message_sound.

Theorem C12_tunnel_message_complete :
  forall rc c a id0 (mops : list Mop) st pkts t0,
    scfg_ok c -> compat c rc -> id0 < two32 ->
    N.of_nat (length (sent_msgs mops)) <= two32 ->
    Forall MsgModel.wf (sent_msgs mops) ->
    srun c (s_init id0) (map lower mops) = (st, pkts) ->
    s_pkt st = [] -> s_q st = [] ->
    tbl_wf t0 -> tbl_find a t0 = None ->
    deliver_msgs (snd (recv_all rc t0 (map (pair a) pkts)))
    = map (pair a) (map MsgModel.rt (filter (fitsM rc) (sent_msgs mops))).
Proof. exact tunnel_message_complete. Qed.
Print Assumptions C12_tunnel_message_complete.

Theorem C12_mini_message_sound :
  forall (deflate : N -> list Byte.byte -> option (list Byte.byte))
         (inflate : list Byte.byte -> option (list Byte.byte)),
    (forall lvl x d, deflate lvl x = Some d -> inflate d = Some x) ->
    forall (rc : rcfg) (who : addr -> option mini_msg_run) (net : list (addr * packet)),
      rc_misc rc = false -> PHS <= rc_mtu rc ->
      (forall a s, who a = Some s -> mini_msg_run_ok s /\ (mc_level (mm_cfg s) = 0 \/ mc_mtu (mm_cfg s) <= rc_mtu rc)) ->
      (forall a s p, who a = Some s -> In (a, p) net -> In p (mr_packets deflate (mlower_run s)) \/ foreign (rc_magic rc) p) ->
      forall a s D, who a = Some s -> In (a, D) (deliver_msgs (mrecv_all inflate rc net)) ->
        exists M, In M (sent_msgs (mm_mops s)) /\ D = MsgModel.rt M /\ MsgModel.flatten D = MsgModel.flatten M.
Proof. exact mini_message_sound. Qed.
Print Assumptions C12_mini_message_sound.

Theorem C12_mini_message_complete :
  forall (deflate : N -> list Byte.byte -> option (list Byte.byte))
         (inflate : list Byte.byte -> option (list Byte.byte)),
    (forall lvl x d, deflate lvl x = Some d -> inflate d = Some x) ->
    forall rc c a pid0 (mops : list Mop) st pkts,
      mcfg_ok c -> rc_misc rc = false ->
      mc_magic c = rc_magic rc -> sex_ok rc (mc_sex c) = true -> mc_mtu c <= rc_mtu rc ->
      pid0 < 2 ^ 24 -> Forall MsgModel.wf (sent_msgs mops) ->
      mrun deflate c (m_init pid0) (map mlower mops) = (st, pkts) ->
      m_pkt st = [] -> m_q st = [] ->
      deliver_msgs (mrecv_all inflate rc (map (pair a) pkts))
      = map (pair a) (map MsgModel.rt (filter (mfitsM c) (sent_msgs mops))).
Proof. exact mini_message_complete. Qed.
Print Assumptions C12_mini_message_complete.

Example C12_message_premises_satisfiable : msg_run_ok exm_run /\ compat exm_cfg exm_rc.
Proof. exact exm_ok. Qed.
Example C12_message_nontrivial :
  let pkts := sr_packets (lower_run exm_run) in
  (10 < length pkts)%nat
  /\ deliver_msgs (snd (recv_all exm_rc [] (map (pair 5) pkts)))
     = [(5, MsgModel.rt MsgExamples.ex_msg); (5, MsgModel.rt MsgExamples.ex_sub)]
  /\ MsgModel.rt MsgExamples.ex_msg <> MsgExamples.ex_msg.
Proof. exact exm_nontrivial. Qed.
