(* C18 -- the property theorems, each closed by [exact] of a lemma proved in Conc/RwMutex*.v, followed by non-vacuity
   examples: reachable states that satisfy their premises, obtained by running a list of labels from [sys0].
   The model: Conc/RwMutexModel.v, an interleaving LTS of system/ReaderWriterMutex.cpp (any number of threads, any
   sequence of API calls per thread, both _preferWriters settings, timeouts firing at any decision). *)
From Coq Require Import List Arith Bool.
Import ListNotations.
From Muscle Require Import Conc.RwMutexModel Conc.RwMutexProofs Conc.RwMutexInv Conc.RwMutexThms Conc.RwMutexLive Conc.RwMutexExtras Conc.RwMutexCheck Conc.RwMutexProgress Conc.RwMutexTrace Conc.RwMutexVariant Conc.RwMutexFair.

(* The inductive invariant: read mode / write mode of the table + every thread's code position agrees with the tables. *)
Theorem C18_invariant : forall pref s, reachable pref s -> inv s.
Proof. exact inv_reachable. Qed.
Print Assumptions C18_invariant.

(* rw_exclusion: a thread that holds the lock for writing is the only thread that holds it at all (table level) *)
Theorem C18_rw_exclusion : forall pref s, reachable pref s ->
  forall t e t' e', In (t, e) (g_exec (s_g s)) -> 0 < e_rw e -> In (t', e') (g_exec (s_g s)) -> t' = t /\ e' = e.
Proof. exact exclusion_table. Qed.
Print Assumptions C18_rw_exclusion.

(* ... and at the level of what the returned API calls entitle the threads to (the only exception is the documented one:
   a thread inside an upgrading LockReadWrite() has given its read locks up for the duration of that call) *)
Theorem C18_rw_exclusion_user : forall pref s, reachable pref s ->
  forall t t', t' <> t -> 0 < l_hrw (s_l s t) ->
  (l_hro (s_l s t') = 0 /\ l_hrw (s_l s t') = 0) \/ l_stk (s_l s t') <> [].
Proof. exact exclusion_user. Qed.
Print Assumptions C18_rw_exclusion_user.

(* rw_counts: outside any call, a thread's table entry is exactly (#successful LockReadOnly - #successful UnlockReadOnly,
   #successful LockReadWrite - #successful UnlockReadWrite) of its returned calls -- each release undoes exactly one acquire,
   failed calls (timed out, B_LOCK_FAILED) leave the thread's holdings unchanged -- and it is in no waiting table *)
Theorem C18_rw_counts : forall pref s, reachable pref s -> forall t, l_act (s_l s t) = AIdle ->
  find t (g_exec (s_g s)) = mk_ent (l_hro (s_l s t)) (l_hrw (s_l s t)) /\
  memk t (g_wr (s_g s)) = false /\ memk t (g_ww (s_g s)) = false.
Proof. exact counts_idle. Qed.
Print Assumptions C18_rw_counts.

Theorem C18_rw_unlock_ro : forall pref s, reachable pref s -> forall t g' l' o,
  l_act (s_l s t) = AEnterUnRO -> l_stk (s_l s t) = [] ->
  step pref t CRun (s_g s) (s_l s t) = Some (g', l', o) ->
  (l_hro (s_l s t) = 0 -> o_ret o = Some SLockFailed /\ g' = s_g s) /\
  (0 < l_hro (s_l s t) -> o_ret o = Some SOk /\ l_hro l' = pred (l_hro (s_l s t)) /\ l_hrw l' = l_hrw (s_l s t)).
Proof. exact unlock_ro_status. Qed.
Print Assumptions C18_rw_unlock_ro.

Theorem C18_rw_unlock_rw : forall pref s, reachable pref s -> forall t g' l' o,
  l_act (s_l s t) = AEnterUnRW -> l_stk (s_l s t) = [] ->
  step pref t CRun (s_g s) (s_l s t) = Some (g', l', o) ->
  (l_hrw (s_l s t) = 0 -> o_ret o = Some SLockFailed /\ g' = s_g s) /\
  (0 < l_hrw (s_l s t) -> o_ret o = Some SOk /\ l_hrw l' = pred (l_hrw (s_l s t)) /\ l_hro l' = l_hro (s_l s t)).
Proof. exact unlock_rw_status. Qed.
Print Assumptions C18_rw_unlock_rw.

(* rw_try_unchanged: a try acquisition is one transition: it returns at once, never parks, and on failure the lock state is
   unchanged (since fix F21 this includes TryLockReadWrite() on the upgrade path) *)
Theorem C18_rw_try_unchanged_ro : forall pref t g l, l_act l = AEnterRO Try -> l_stk l = [] ->
  exists g' l' o, step pref t CRun g l = Some (g', l', o) /\
    (o_ret o = Some SOk \/ (o_ret o = Some STimedOut /\ g' = g)) /\ o_park o = None /\ l_act l' = AIdle.
Proof. exact try_ro_one_step. Qed.
Print Assumptions C18_rw_try_unchanged_ro.

Theorem C18_rw_try_unchanged_rw : forall pref t g l, l_act l = AEnterRW Try -> l_stk l = [] ->
  exists g' l' o, step pref t CRun g l = Some (g', l', o) /\
    (o_ret o = Some SOk \/ (o_ret o = Some STimedOut /\ g' = g)) /\ o_park o = None /\ l_act l' = AIdle.
Proof. exact try_rw_one_step. Qed.
Print Assumptions C18_rw_try_unchanged_rw.

(* timed acquisitions: while parked, the timeout transition is always enabled, and once it fired the call returns
   B_TIMED_OUT with the thread's holdings unchanged (plain calls; for the upgrade path see C18_timed_upgrade_refuted) *)
Theorem C18_rw_timeout_enabled : forall pref t g l, (l_act l = AParkRO Timed \/ l_act l = AParkRW Timed) ->
  exists l', step pref t CTimeout g l = Some (g, l', wake_out false) /\
             (l_act l' = AWokeRO Timed false \/ l_act l' = AWokeRW Timed false) /\ l_stk l' = l_stk l.
Proof. exact timeout_always_enabled. Qed.
Print Assumptions C18_rw_timeout_enabled.

Theorem C18_rw_timed_out_returns : forall pref t g l d, (l_act l = AWokeRO d false \/ l_act l = AWokeRW d false) -> l_stk l = [] ->
  exists g' l' o, step pref t CRun g l = Some (g', l', o) /\ o_ret o = Some STimedOut /\ l_act l' = AIdle /\
                  l_hro l' = l_hro l /\ l_hrw l' = l_hrw l.
Proof. exact timed_out_returns. Qed.
Print Assumptions C18_rw_timed_out_returns.

(* any number of readers may hold the lock together: with no write recursion anywhere and (preference off or no writer
   waiting) a further reader is admitted in one transition, without disturbing the others *)
Theorem C18_rw_readers_share : forall pref t d g l, l_act l = AEnterRO d -> l_stk l = [] ->
  g_total g = 0 -> (pref = false \/ g_ww g = []) ->
  exists g' l' o, step pref t CRun g l = Some (g', l', o) /\ o_ret o = Some SOk /\ o_park o = None /\
                  (forall k, k <> t -> find k (g_exec g') = find k (g_exec g)) /\
                  exists e, find t (g_exec g') = Some e /\ 0 < e_ro e.
Proof. exact readers_share. Qed.
Print Assumptions C18_rw_readers_share.

(* the hand-off invariant behind "no lost wake-up": whenever nobody holds the lock, the waiters the hand-off policy favours
   (writer preference: the first waiting writer, else all waiting readers; no preference: all waiting readers, else the first
   waiting writer) have a notification pending or have already returned from Wait() *)
Theorem C18_rw_handoff_invariant : forall pref s, reachable pref s -> J pref s.
Proof. exact J_reachable. Qed.
Print Assumptions C18_rw_handoff_invariant.

(* rw_no_lost_wakeup (safety form): nobody holds the lock and somebody waits ==> a waiting thread has an enabled transition *)
Theorem C18_rw_no_lost_wakeup : forall pref s, reachable pref s -> g_exec (s_g s) = [] ->
  (g_wr (s_g s) <> [] \/ g_ww (s_g s) <> []) ->
  exists t, (memk t (g_wr (s_g s)) = true \/ memk t (g_ww (s_g s)) = true) /\
            step pref t CRun (s_g s) (s_l s t) <> None.
Proof. exact no_lost_wakeup. Qed.
Print Assumptions C18_rw_no_lost_wakeup.

(* no deadlock among threads that use only this lock (safety form): if NO transition of any thread is enabled while somebody
   waits, then some thread that is outside any call holds the lock -- the waiters wait for a holder that has not released,
   never for a lost wake-up.  ("If every holder eventually releases, every waiting thread eventually acquires", minus fairness.) *)
Theorem C18_rw_no_stranding : forall pref s, reachable pref s ->
  (forall t c, step pref t c (s_g s) (s_l s t) = None) ->
  (g_wr (s_g s) <> [] \/ g_ww (s_g s) <> []) ->
  exists h e, find h (g_exec (s_g s)) = Some e /\ l_act (s_l s h) = AIdle.
Proof. exact no_stranding. Qed.
Print Assumptions C18_rw_no_stranding.

(* rw_writer_pref / writer FIFO: every way a thread that holds nothing can come to hold the lock.  As a reader: only with no
   write recursion anywhere and, under writer preference, only while NO writer is waiting (so a reader that arrives after a
   waiting writer cannot be admitted before that writer left the queue).  As a writer: only when nobody executes and it is
   the first waiting writer (or none waits). *)
Theorem C18_rw_writer_pref : forall pref t g l g' l' o e,
  step pref t CRun g l = Some (g', l', o) -> find t (g_exec g) = None -> find t (g_exec g') = Some e ->
  (e = mkEnt 1 0 /\ g_total g = 0 /\ (pref = true -> g_ww g = [])) \/
  (e = mkEnt 0 1 /\ g_exec g = [] /\ (g_ww g = [] \/ exists c r, g_ww g = (t, c) :: r)).
Proof. exact admission. Qed.
Print Assumptions C18_rw_writer_pref.

(* ... and system-wide: with preference on, while ANY writer waits, no transition of any thread turns a thread that holds
   nothing into a reader (only into a writer): readers arriving after a waiting writer do not overtake it *)
Theorem C18_rw_writer_pref_sys : forall s lab s' o w,
  sys_step true s lab = Some (s', o) -> memk w (g_ww (s_g s)) = true ->
  forall r e, find r (g_exec (s_g s)) = None -> find r (g_exec (s_g s')) = Some e -> e = mkEnt 0 1.
Proof. exact writer_pref_sys. Qed.
Print Assumptions C18_rw_writer_pref_sys.

(* writers are served first-come first-served: while writers wait, only the head of the writer queue can become a writer *)
Theorem C18_rw_writer_fifo_sys : forall pref s lab s' o h c r,
  sys_step pref s lab = Some (s', o) -> g_ww (s_g s) = (h, c) :: r ->
  forall t, find t (g_exec (s_g s)) = None -> find t (g_exec (s_g s')) = Some (mkEnt 0 1) -> t = h.
Proof. exact writer_fifo_sys. Qed.
Print Assumptions C18_rw_writer_fifo_sys.

(* the hand-off is effective: the favoured waiter, once it has returned from Wait(), is admitted by its next critical section
   if nobody took the lock in between *)
Theorem C18_rw_handoff_admits_writer : forall pref s, reachable pref s -> g_exec (s_g s) = [] ->
  forall h c r d, g_ww (s_g s) = (h, c) :: r -> l_act (s_l s h) = AWokeRW d true ->
  exists g' l' o, step pref h CRun (s_g s) (s_l s h) = Some (g', l', o) /\ find h (g_exec g') = Some (mkEnt 0 1) /\ memk h (g_ww g') = false.
Proof. exact handoff_admits_writer. Qed.
Print Assumptions C18_rw_handoff_admits_writer.

Theorem C18_rw_handoff_admits_reader : forall pref s, reachable pref s -> g_exec (s_g s) = [] -> (pref = true -> g_ww (s_g s) = []) ->
  forall k d, l_act (s_l s k) = AWokeRO d true ->
  exists g' l' o, step pref k CRun (s_g s) (s_l s k) = Some (g', l', o) /\ find k (g_exec g') = Some (mkEnt 1 0) /\ memk k (g_wr g') = false.
Proof. exact handoff_admits_reader. Qed.
Print Assumptions C18_rw_handoff_admits_reader.

(* a free lock with waiters is never a dead end: some waiting thread t, by at most two of its own transitions (return from
   Wait(), critical section), holds the lock -- or, if its timeout had fired, has left the queue (and passed the wake-up on,
   so the statement applies again to the shorter queue) *)
Theorem C18_rw_free_lock_progress : forall pref s, reachable pref s -> g_exec (s_g s) = [] ->
  (g_wr (s_g s) <> [] \/ g_ww (s_g s) <> []) ->
  exists t s', (run pref [R t] s = Some s' \/ run pref [R t; R t] s = Some s') /\
               (find t (g_exec (s_g s')) <> None \/ nwait (s_g s') < nwait (s_g s)).
Proof. exact free_lock_progress. Qed.
Print Assumptions C18_rw_free_lock_progress.

(* liveness of the hand-off under weak fairness.  [fair_run pref sigma lam]: sigma is an infinite run of the LTS (lam i is the
   label of its i-th transition; threads may start calls at any time, the environment may stutter) on which no thread's next
   transition stays enabled forever without being taken.  On every such run, whenever the lock is free and somebody waits,
   the waiter t the hand-off favours eventually holds the lock, unless somebody else takes the lock first (then the lock is
   held again and "every holder eventually releases" brings us back here) or t's own timeout had fired and t leaves the queue.
   Unconditional "every waiter eventually acquires" is false by design: without writer preference a stream of readers can
   starve writers, with it a stream of writers can starve readers. *)
Theorem C18_rw_fair_handoff : forall pref sigma lam, fair_run pref sigma lam -> forall i,
  g_exec (s_g (sigma i)) = [] -> (g_wr (s_g (sigma i)) <> [] \/ g_ww (s_g (sigma i)) <> []) ->
  exists t j, i <= j /\
    ((memk t (g_ww (s_g (sigma i))) = true /\ (g_exec (s_g (sigma j)) <> [] \/ memk t (g_ww (s_g (sigma j))) = false)) \/
     (memk t (g_wr (s_g (sigma i))) = true /\ (g_exec (s_g (sigma j)) <> [] \/ memk t (g_wr (s_g (sigma j))) = false))).
Proof. exact fair_handoff. Qed.
Print Assumptions C18_rw_fair_handoff.

(* the model's lists are faithful images of the Hashtables: no thread appears twice in a table *)
Theorem C18_rw_tables_nodup : forall pref s, reachable pref s -> nodup (s_g s).
Proof. exact nodup_reachable. Qed.
Print Assumptions C18_rw_tables_nodup.

(* the error returns inside the upgrade path that the model does not follow are dead: the inner UnlockReadOnly() and
   LockReadOnly() calls always return B_NO_ERROR *)
Theorem C18_rw_upgrade_inner_calls_succeed : forall pref s, reachable pref s -> forall t f k g' ns st,
  l_stk (s_l s t) = f :: k -> (match f with FInner _ => False | _ => True end) ->
  cs pref t (l_act (s_l s t)) (s_g s) = Some (g', ns, Done st) -> st = SOk.
Proof. exact upgrade_inner_calls_succeed. Qed.
Print Assumptions C18_rw_upgrade_inner_calls_succeed.

(* the executable invariant check the model driver evaluates on every state of every replayed trace can only fail on a
   state that is not reachable in the model *)
Theorem C18_rw_check_complete : forall pref s tids, reachable pref s ->
  (forall t, memk t (g_wr (s_g s)) = true \/ memk t (g_ww (s_g s)) = true -> In t tids) ->
  check_state pref s tids = true.
Proof. exact check_state_complete. Qed.
Print Assumptions C18_rw_check_complete.

(* rw_counts on the observable trace only (no ghost counters): [tally_of t tr] is computed from the labels and outputs of an
   execution -- the calls thread t began and the statuses they returned --; whenever t is outside a call, its table entry is
   exactly (#ok LockReadOnly - #ok UnlockReadOnly, #ok LockReadWrite - #ok UnlockReadWrite) and it is in no waiting table *)
Theorem C18_rw_counts_trace : forall pref tr s, exec_from pref sys0 tr s -> forall t, t_cur (tally_of t tr) = None ->
  find t (g_exec (s_g s)) = mk_ent (t_ro (tally_of t tr)) (t_rw (tally_of t tr)) /\
  memk t (g_wr (s_g s)) = false /\ memk t (g_ww (s_g s)) = false.
Proof. exact counts_trace. Qed.
Print Assumptions C18_rw_counts_trace.

(* known finding F22, stated in the model: a TIMED LockReadWrite() on the upgrade path can be parked where no timeout can fire *)
Theorem C18_timed_upgrade_refuted : forall pref,
  exists s, reachable pref s /\ l_op (s_l s 0) = Some (OLockRW Timed) /\ l_act (s_l s 0) = AParkRO Never /\
            step pref 0 CTimeout (s_g s) (s_l s 0) = None /\ step pref 0 CRun (s_g s) (s_l s 0) = None.
Proof. exact timed_upgrade_deadline_refuted. Qed.
Print Assumptions C18_timed_upgrade_refuted.

(* the "natural repair" of F22 -- letting the restoring re-lock honour the caller's deadline -- is wrong: in that variant
   (RwMutexVariant.v) a failed timed upgrade returns holding NO lock although its completed calls entitle it to a read lock,
   while another thread writes (seeded change C18-upgrade-relock-uses-expired-deadline; corpus/C18.txt has the replay) *)
Theorem C18_relock_with_deadline_refuted : forall pref,
  exists s, reachableV pref s /\ l_act (s_l s 0) = AIdle /\ l_hro (s_l s 0) = 1 /\ find 0 (g_exec (s_g s)) = None /\
            find 0 (g_exec (s_g s)) <> exp_ent (s_l s 0) /\ find 1 (g_exec (s_g s)) = Some (mkEnt 1 1).
Proof. exact relock_with_deadline_refuted. Qed.
Print Assumptions C18_relock_with_deadline_refuted.

(* ---- non-vacuity: reachable states that satisfy the premises above ---- *)

(* a writer (thread 0, recursion 2) with a reader and a writer queued behind it *)
Example C18_ex_writer_and_queue :
  exists s, reachable true s /\ g_exec (s_g s) = [(0, mkEnt 0 2)] /\ g_total (s_g s) = 2 /\
            g_wr (s_g s) = [(1, 0)] /\ g_ww (s_g s) = [(2, 0)] /\ l_hrw (s_l s 0) = 2 /\ l_act (s_l s 0) = AIdle.
Proof.
  eapply run_witness with (labs := [B 0 (OLockRW Never); R 0; B 0 (OLockRW Try); R 0; B 1 (OLockRO Never); R 1; B 2 (OLockRW Timed); R 2]); [vm_compute; reflexivity|].
  vm_compute. auto 10.
Qed.

(* three readers share the lock (preference off, a writer is waiting) *)
Example C18_ex_three_readers :
  exists s, reachable false s /\ g_exec (s_g s) = [(0, mkEnt 1 0); (1, mkEnt 2 0); (3, mkEnt 1 0)] /\ g_total (s_g s) = 0 /\
            g_ww (s_g s) = [(2, 0)].
Proof.
  eapply run_witness with (labs := [B 0 (OLockRO Never); R 0; B 1 (OLockRO Never); R 1; B 2 (OLockRW Never); R 2;
                       B 1 (OLockRO Timed); R 1; B 3 (OLockRO Try); R 3]); [vm_compute; reflexivity|].
  vm_compute. auto 10.
Qed.

(* an unlock about to run with nothing held (fails) and one with something held (succeeds) *)
Example C18_ex_unlocks :
  exists s, reachable true s /\ l_act (s_l s 0) = AEnterUnRO /\ l_stk (s_l s 0) = [] /\ l_hro (s_l s 0) = 0 /\
            l_act (s_l s 1) = AEnterUnRW /\ l_stk (s_l s 1) = [] /\ l_hrw (s_l s 1) = 1.
Proof.
  eapply run_witness with (labs := [B 1 (OLockRW Never); R 1; B 1 OUnlockRW; B 0 OUnlockRO]); [vm_compute; reflexivity|].
  vm_compute. auto 10.
Qed.

(* a timed waiter that is parked (its timeout can fire), and one whose timeout has fired *)
Example C18_ex_timed :
  exists s, reachable true s /\ l_act (s_l s 1) = AParkRO Timed /\ l_act (s_l s 2) = AWokeRW Timed false /\ l_stk (s_l s 2) = [].
Proof.
  eapply run_witness with (labs := [B 0 (OLockRW Never); R 0; B 1 (OLockRO Timed); R 1; B 2 (OLockRW Timed); R 2; T 2]); [vm_compute; reflexivity|].
  vm_compute. auto 10.
Qed.

(* nobody holds the lock, a writer and a reader wait, the writer has been notified (writer preference) *)
Example C18_ex_handoff :
  exists s, reachable true s /\ g_exec (s_g s) = [] /\ g_ww (s_g s) = [(1, 1)] /\ g_wr (s_g s) = [(2, 0)] /\
            step true 1 CRun (s_g s) (s_l s 1) <> None.
Proof.
  eapply run_witness with (labs := [B 0 (OLockRW Never); R 0; B 1 (OLockRW Never); R 1; B 2 (OLockRO Never); R 2; B 0 OUnlockRW; R 0]); [vm_compute; reflexivity|].
  vm_compute.
  repeat split; auto; discriminate.
Qed.

(* a stuck state: thread 0 holds a read lock and is outside any call, thread 1 waits for the write lock; NO transition of any
   thread is enabled (the premise of C18_rw_no_stranding) *)
Example C18_ex_stuck_behind_idle_holder :
  exists s, reachable true s /\ g_ww (s_g s) = [(1, 0)] /\ l_act (s_l s 0) = AIdle /\ find 0 (g_exec (s_g s)) = Some (mkEnt 1 0) /\
            (forall t c, step true t c (s_g s) (s_l s t) = None).
Proof.
  eapply run_witness with (labs := [B 0 (OLockRO Never); R 0; B 1 (OLockRW Never); R 1]); [vm_compute; reflexivity|].
  repeat split; try (vm_compute; reflexivity).
  intros t c. destruct t as [|[|t']]; destruct c; reflexivity.
Qed.

(* the first waiting writer has been notified and has returned from Wait(); a reader in the same situation (no preference) *)
Example C18_ex_woken_writer :
  exists s, reachable true s /\ g_exec (s_g s) = [] /\ g_ww (s_g s) = [(1, 0); (2, 0)] /\ l_act (s_l s 1) = AWokeRW Never true.
Proof.
  eapply run_witness with (labs := [B 0 (OLockRW Never); R 0; B 1 (OLockRW Never); R 1; B 2 (OLockRW Timed); R 2; B 0 OUnlockRW; R 0; R 1]); [vm_compute; reflexivity|].
  vm_compute. auto 10.
Qed.

Example C18_ex_woken_reader :
  exists s, reachable false s /\ g_exec (s_g s) = [] /\ g_ww (s_g s) = [(2, 0)] /\ l_act (s_l s 1) = AWokeRO Timed true.
Proof.
  eapply run_witness with (labs := [B 0 (OLockRW Never); R 0; B 1 (OLockRO Timed); R 1; B 2 (OLockRW Never); R 2; B 0 OUnlockRW; R 0; R 1]); [vm_compute; reflexivity|].
  vm_compute. auto 10.
Qed.

(* a thread in the middle of the upgrade path: giving up the second of two read locks / re-taking them after the inner call *)
Example C18_ex_upgrade_frames :
  exists s, reachable true s /\ l_stk (s_l s 0) = [FDrop 2 1 Never] /\ l_stk (s_l s 1) = [FRelock 1 0 STimedOut].
Proof.
  eapply run_witness with (labs := [B 0 (OLockRO Never); R 0; B 0 (OLockRO Never); R 0; B 1 (OLockRO Never); R 1; B 2 (OLockRO Never); R 2;
                      B 1 (OLockRW Timed); R 1; R 1; R 1; T 1; R 1;
                      B 0 (OLockRW Never); R 0; R 0]); [vm_compute; reflexivity|].
  vm_compute. auto.
Qed.

(* an execution with its observable trace: thread 0 ends outside any call with tally (1 read, 0 write) *)
Example C18_ex_trace :
  exists tr s, exec_from true sys0 tr s /\ t_cur (tally_of 0 tr) = None /\ t_ro (tally_of 0 tr) = 1 /\ t_rw (tally_of 0 tr) = 0 /\ length tr = 8.
Proof.
  eexists _, _. split; [eapply runo_exec with (labs := [B 0 (OLockRO Never); R 0; B 0 (OLockRO Try); R 0; B 0 OUnlockRO; R 0; B 0 OUnlockRW; R 0]);
                         [apply exec_nil | vm_compute; reflexivity]|].
  vm_compute. auto.
Qed.

(* fair runs exist (the trivial one; finite executions extend to fair runs by letting the environment stutter once no thread
   has an enabled transition) *)
Example C18_ex_fair_run : forall pref, fair_run pref (fun _ => sys0) (fun _ => LEnv []).
Proof. exact fair_run_exists. Qed.
