(* C15 -- PatProofs.v : lemmas about the StringMatcher model (Pat/Translate.v, Pat/Ere.v). *)
From Coq Require Import List Arith NArith Bool Lia.
From Muscle Require Import Gen.Consts Pat.Ere Pat.EreProofs Pat.Translate Pat.Simple Pat.TranslateProofs Pat.UvProofs Pat.RangeProofs Pat.SimpleParse Pat.SimpleParseComplete Pat.PatSpec.
Import ListNotations.
Local Open Scope N_scope.

(* what can be observed of a StringMatcher: every member, the compiled regex only while REGEXVALID *)
Definition obs (st : sm) :=
  (s_pattern st, s_valid st, s_negate st, s_multi st, s_simple st, s_uvlist st, s_ranges st,
   if s_valid st then s_regexp st else None).

Lemma set_pattern_overwrites :
  forall engine st1 st2 p simple,
    obs (fst (set_pattern engine st1 p simple)) = obs (fst (set_pattern engine st2 p simple)) /\
    snd (set_pattern engine st1 p simple) = snd (set_pattern engine st2 p simple).
Proof.
  intros engine st1 st2 p simple. rewrite !set_pattern_eq.
  destruct (regex_string p simple) as [re|]; [destruct (engine re)|]; split; reflexivity.
Qed.

Lemma valid_iff_compiled : forall engine st0 p simple,
  let st := fst (set_pattern engine st0 p simple) in
  (s_valid st, if s_valid st then s_regexp st else None) =
  match regex_string p simple with
  | Some re => match engine re with RxOk m => (true, Some m) | RxErr => (false, None) end
  | None => (false, None)
  end.
Proof.
  intros engine st0 p simple. cbv zeta. rewrite set_pattern_eq.
  destruct (regex_string p simple) as [re|]; [destruct (engine re)|]; reflexivity.
Qed.

Lemma tbl_skip_seconds :
  c_sp_skip_escape_first = 92 /\
  forallb (fun b => tr_plain b && negb (mem b c_sp_escaped_prefix_for)) c_sp_skip_escape_seconds = true.
Proof. vm_compute. split; reflexivity. Qed.

(* the special case for a leading "\<" changes nothing: the translation of a backslash followed by < or `
   puts no backslash into the regex anyway *)
Lemma skip_noop : forall str, tr_loop (skip_escaped_first str) false = tr_loop str false.
Proof.
  intros str. unfold skip_escaped_first.
  destruct str as [|a [|b t]]; try reflexivity.
  destruct ((a =? c_sp_skip_escape_first) && mem b c_sp_skip_escape_seconds) eqn:E; [|reflexivity].
  apply andb_true_iff in E as [Ea Eb]. destruct tbl_skip_seconds as [T1 T2].
  rewrite T1 in Ea. apply N.eqb_eq in Ea. subst a.
  apply mem_In in Eb. rewrite forallb_forall in T2. apply T2 in Eb.
  apply andb_true_iff in Eb as [Hp Hn]. apply negb_true_iff in Hn.
  change (92 :: b :: t) with (ch_bsl :: b :: t). rewrite tr_loop_esc. unfold tr_esc. rewrite Hn.
  cbn [tr_loop app]. unfold tr_plain in Hp. destruct (action_of b); try discriminate. reflexivity.
Qed.

Definition tilde (neg : bool) : list N := if neg then [ch_tilde] else [].

Lemma strip_negate_head_ok : forall neg p, head_ok p = true -> strip_negate (tilde neg ++ p) = (neg, p).
Proof.
  intros [|] p H; [reflexivity|]. destruct p as [|c t]; [reflexivity|]. unfold strip_negate, tilde, app.
  replace c_sp_negate_char with ch_tilde by reflexivity.
  cbn [head_ok] in H. apply negb_true_iff in H. rewrite !orb_false_iff in H. destruct H as [[-> _] _]. reflexivity.
Qed.

Lemma head_ok_body : forall p, head_ok p = true -> simple_body p = ([], regex_of_simple p, p).
Proof.
  intros [|c t] H; [reflexivity|]. unfold simple_body.
  replace c_sp_rawregex_char with ch_backtick by reflexivity.
  replace c_sp_range_open with ch_lt by reflexivity.
  cbn [head_ok] in H. apply negb_true_iff in H. rewrite !orb_false_iff in H. destruct H as [[_ ->] ->]. reflexivity.
Qed.

(* a pattern that starts with none of ~ ` < (after the optional ~) is neither a range list nor a raw regex: its
   translation, wrapped, goes to regcomp *)
Lemma regex_string_head_ok : forall neg p,
  head_ok p = true ->
  sp_ranges (tilde neg ++ p) true = [] /\
  regex_string (tilde neg ++ p) true = Some (c_sp_regex_prefix ++ tr_loop p false ++ c_sp_regex_suffix).
Proof.
  intros neg p H. unfold sp_ranges, regex_string.
  rewrite (strip_negate_head_ok neg p H). cbn [snd]. rewrite (head_ok_body p H). cbn [fst is_nil].
  unfold regex_of_simple. rewrite skip_noop. destruct tbl_wrap as [-> _]. split; reflexivity.
Qed.

Lemma set_pattern_flags : forall engine st0 p,
  let st := fst (set_pattern engine st0 p true) in
  s_multi st = fst (can_match_multiple p) /\ s_negate st = fst (strip_negate p) /\ s_ranges st = sp_ranges p true /\
  s_uvlist st = snd (can_match_multiple p) && is_nil (sp_ranges p true) && negb (fst (strip_negate p)).
Proof.
  intros engine st0 p. cbv zeta. rewrite set_pattern_eq.
  destruct (regex_string p true) as [re|]; [destruct (engine re)|]; repeat split; reflexivity.
Qed.

Lemma unique_iff : forall engine st0 p,
  is_unique (fst (set_pattern engine st0 p true)) = true <-> fst (can_match_multiple p) = false.
Proof.
  intros engine st0 p. unfold is_unique.
  destruct (set_pattern_flags engine st0 p) as (-> & -> & -> & _). split.
  - intros H. apply andb_true_iff in H as [_ H]. apply negb_true_iff in H. apply orb_false_iff in H as [H _]. exact H.
  - intros H. pose proof (cm_head_ok p (or_introl H)) as Hh.
    rewrite (proj1 (regex_string_head_ok false p Hh) : sp_ranges p true = []).
    rewrite (strip_negate_head_ok false p Hh : strip_negate p = _), H. reflexivity.
Qed.

Lemma uvlist_only_commas : forall engine st0 p,
  is_uvlist (fst (set_pattern engine st0 p true)) = true -> snd (can_match_multiple p) = true.
Proof.
  intros engine st0 p H. unfold is_uvlist in H. destruct (set_pattern_flags engine st0 p) as (_ & _ & _ & E).
  rewrite E in H. apply andb_true_iff in H as [H _]. apply andb_true_iff in H as [H _]. exact H.
Qed.

Section Engine.
  Variable engine : list N -> rx.
  (* libc regcomp/regexec behave as Pat/Ere.v on every regex string inside that model *)
  Hypothesis engine_is_ere : forall re, ere_compile re <> CUnsupported -> engine re = ere_engine re.

  (* Match for a pattern of the wildcard form whose translation compiles: the one place where the premise is used *)
  Lemma matches_anchored : forall neg p r st0 s,
    head_ok p = true ->
    ere_compile (c_sp_regex_prefix ++ tr_loop p false ++ c_sp_regex_suffix) = COk (anchored r) ->
    (matches (fst (set_pattern engine st0 (tilde neg ++ p) true)) s = true <->
     if neg then ~ cden r true s true else cden r true s true).
  Proof.
    intros neg p r st0 s Hh Ec. rewrite matches_set_pattern.
    destruct (regex_string_head_ok neg p Hh) as [-> ->]. rewrite (strip_negate_head_ok neg p Hh). cbn [fst].
    rewrite engine_is_ere by (rewrite Ec; discriminate). unfold ere_engine. rewrite Ec.
    generalize (ere_exec_anchored r s).
    destruct neg, (ere_exec (anchored r) s); cbn [xorb]; intuition congruence.
  Qed.

  Theorem translate_correct : forall neg al st0 s,
    wf_pattern al = true ->
    (matches (fst (set_pattern engine st0 (print_pattern neg al) true)) s = true <-> den_pattern neg al s).
  Proof.
    intros neg al st0 s H. unfold wf_pattern in H. apply andb_true_iff in H as [Hwf Hh].
    unfold print_pattern. fold (tilde neg). rewrite (matches_anchored neg _ _ st0 s Hh (compile_pattern al Hwf)).
    destruct denote_syntax as (_ & _ & D). unfold den_pattern.
    destruct neg; rewrite D by reflexivity; unfold aden; cbn [f_alts f0]; tauto.
  Qed.

  (* a pattern reported unique matches RemoveEscapeChars(pattern) and nothing else *)
  Theorem unique_exact : forall p st0 t,
    is_unique (fst (set_pattern engine st0 p true)) = true ->
    (matches (fst (set_pattern engine st0 p true)) t = true <-> t = unescape p).
  Proof.
    intros p st0 t Hu. apply unique_iff in Hu.
    pose proof Hu as Hl. rewrite (cm_loop p (or_introl Hu)) in Hl.
    destruct (uv_single p true false [] Hl) as [Hc Hs].
    rewrite (matches_anchored false p _ st0 t (cm_head_ok p (or_introl Hu)) (compile_uv p true Hc)), uv_exact, Hs.
    unfold unescape. cbn [In app]. intuition congruence.
  Qed.

  Theorem unique_sound : forall p st0 t,
    is_unique (fst (set_pattern engine st0 p true)) = true ->
    matches (fst (set_pattern engine st0 p true)) t = true -> t = unescape p.
  Proof. intros p st0 t Hu Hm. apply (unique_exact p st0 t Hu). exact Hm. Qed.

  (* "can this pattern match more than one string" answers yes whenever two different strings match *)
  Theorem multi_complete : forall p st0 t1 t2,
    matches (fst (set_pattern engine st0 p true)) t1 = true ->
    matches (fst (set_pattern engine st0 p true)) t2 = true ->
    t1 <> t2 ->
    is_unique (fst (set_pattern engine st0 p true)) = false.
  Proof.
    intros p st0 t1 t2 H1 H2 Hne.
    destruct (is_unique (fst (set_pattern engine st0 p true))) eqn:Hu; [|reflexivity].
    exfalso. apply Hne. rewrite (unique_sound p st0 t1 Hu H1), (unique_sound p st0 t2 Hu H2). reflexivity.
  Qed.

  Theorem escape_unique : forall s st0, is_unique (fst (set_pattern engine st0 (escape s) true)) = true.
  Proof. intros s st0. apply unique_iff. rewrite cw_escape. reflexivity. Qed.

  (* escaping a string yields a pattern that matches that string and no other *)
  Theorem escape_exact : forall s st0 t,
    matches (fst (set_pattern engine st0 (escape s) true)) t = true <-> t = s.
  Proof.
    intros s st0 t. rewrite (unique_exact (escape s) st0 t (escape_unique s st0)).
    rewrite unescape_escape. tauto.
  Qed.

  (* a pattern reported "list of unique values" matches exactly its comma-separated values *)
  Theorem uvlist_exact : forall p st0 t,
    is_uvlist (fst (set_pattern engine st0 p true)) = true ->
    (matches (fst (set_pattern engine st0 p true)) t = true <-> In t (uv_segs p false [])).
  Proof.
    intros p st0 t Hu. apply uvlist_only_commas in Hu.
    pose proof Hu as Hc. rewrite (cm_loop p (or_intror Hu)) in Hc.
    rewrite (matches_anchored false p _ st0 t (cm_head_ok p (or_intror Hu)) (compile_uv p false Hc)). apply uv_exact.
  Qed.

  (* translate_correct read as a statement about pattern STRINGS: whenever the reader of the documented
     grammar accepts the string p (as the tree al), p and ~p match exactly what al denotes *)
  Theorem translate_correct_str : forall p al st0 s,
    sparse p = Some al ->
    (matches (fst (set_pattern engine st0 p true)) s = true <-> den_alt al s) /\
    (matches (fst (set_pattern engine st0 (ch_tilde :: p) true)) s = true <-> ~ den_alt al s).
  Proof.
    intros p al st0 s H. apply sparse_sound in H as [Ep Hwf]. subst p. split.
    - exact (translate_correct false al st0 s Hwf).
    - exact (translate_correct true al st0 s Hwf).
  Qed.
End Engine.

(* SegmentedStringMatcher::MatchAux without prefix matching is exactly "as many pieces as matchers, each piece
   matched by its matcher (no matcher = "*" = anything)"; with prefix matching, and in PathMatcher's clause loop,
   further pieces may follow *)
Lemma seg_match_aux_exact : forall segs toks,
  seg_match_aux segs toks false = true <-> Forall2 (fun m t => clause_ok1 m t = true) segs toks.
Proof.
  induction segs as [|m segs IH]; intros toks; cbn [seg_match_aux].
  - destruct toks; split; intros H; try constructor; try discriminate; inversion H.
  - destruct toks as [|t toks]; [split; intros H; [discriminate | inversion H]|].
    rewrite andb_true_iff, IH. split.
    + intros [H1 H2]. constructor; assumption.
    + intros H. inversion H; subst. split; assumption.
Qed.

Lemma seg_match_aux_prefix : forall segs toks,
  seg_match_aux segs toks true = true <->
  (length segs <= length toks)%nat /\ Forall2 (fun m t => clause_ok1 m t = true) segs (firstn (length segs) toks).
Proof.
  induction segs as [|m segs IH]; intros toks; cbn [seg_match_aux length firstn].
  - destruct toks; split; intros; try reflexivity; split; try constructor; apply Nat.le_0_l.
  - destruct toks as [|t toks]; cbn [length firstn].
    + split; [discriminate | intros [H _]; inversion H].
    + rewrite andb_true_iff, IH. split.
      * intros [H1 [H2 H3]]. split; [apply le_n_S; exact H2 | constructor; assumption].
      * intros [H1 H2]. inversion H2; subst. split; [assumption|]. split; [apply le_S_n; exact H1 | assumption].
Qed.

Lemma clauses_match_seg : forall ms toks, clauses_match ms toks = seg_match_aux ms toks true.
Proof.
  induction ms as [|m ms IH]; intros [|t toks]; cbn [clauses_match seg_match_aux]; try reflexivity.
  rewrite IH. reflexivity.
Qed.

Lemma clauses_match_spec : forall ms toks,
  clauses_match ms toks = true <->
  (length ms <= length toks)%nat /\ Forall2 (fun m t => clause_ok1 m t = true) ms (firstn (length ms) toks).
Proof. intros ms toks. rewrite clauses_match_seg. apply seg_match_aux_prefix. Qed.

Lemma split_on_after : forall sep p cur,
  length (split_on sep p cur) = match after_sep sep p with Some t => S (length (split_on sep t [])) | None => 1%nat end.
Proof.
  induction p as [|c p IH]; intros cur; cbn [split_on after_sep]; [reflexivity|].
  destruct (c =? sep); [reflexivity | apply IH].
Qed.

Lemma after_sep_shorter : forall sep p t, after_sep sep p = Some t -> (length t < length p)%nat.
Proof.
  induction p as [|c p IH]; intros t H; cbn [after_sep] in H; [discriminate H|].
  destruct (c =? sep).
  - inversion H; subst. cbn [length]. apply Nat.lt_succ_diag_r.
  - apply IH in H. cbn [length]. apply Nat.lt_lt_succ_r. exact H.
Qed.

Lemma depth_loop_split : forall f p,
  (length p < f)%nat -> depth_loop f p false = length (split_on ch_slash p []).
Proof.
  induction f as [|f IH]; intros p H; [inversion H|].
  cbn [depth_loop]. rewrite orb_true_r. rewrite split_on_after.
  destruct (after_sep ch_slash p) as [t|] eqn:E; [|reflexivity].
  rewrite IH; [reflexivity|]. apply after_sep_shorter in E. lia.
Qed.

(* GetPathDepth counts exactly the clauses that MatchesPath tokenises (and PutPathString files): the path,
   less one leading '/', cut at every '/' *)
Lemma path_depth_clauses : forall p, path_depth p = length (hard_split ch_slash (skip_slash p)).
Proof.
  intros p. unfold path_depth. generalize (skip_slash p). intros q.
  destruct q as [|c q]; [reflexivity|].
  unfold hard_split. rewrite <- (depth_loop_split (S (length (c :: q))) (c :: q)) by apply Nat.lt_succ_diag_r.
  reflexivity.
Qed.

Lemma forall2_len : forall (A B : Type) (R : A -> B -> Prop) l1 l2, Forall2 R l1 l2 -> length l1 = length l2.
Proof. induction 1; cbn [length]; congruence. Qed.

(* hence MatchesPath (one stored path, no filter) is exactly: as many clauses as matchers, each clause matched *)
Lemma path_matches_exact : forall ms subject,
  path_matches ms subject = true <->
  Forall2 (fun m t => clause_ok1 m t = true) ms (hard_split ch_slash (skip_slash subject)).
Proof.
  intros ms subject. unfold path_matches. rewrite path_depth_clauses.
  set (toks := hard_split ch_slash (skip_slash subject)).
  rewrite andb_true_iff, Nat.eqb_eq, clauses_match_spec. split.
  - intros (Hl & _ & H). rewrite <- Hl, firstn_all in H. exact H.
  - intros H. pose proof (forall2_len _ _ _ _ _ H) as Hl. rewrite Hl. split; [reflexivity|].
    split; [apply Nat.le_refl|]. rewrite <- Hl, firstn_all2 by (rewrite Hl; apply Nat.le_refl). exact H.
Qed.

(* a well-formed pattern using every construct:  a?*[^b-dx](\*|e,f.)  *)
Definition ex_alt : salt :=
  SLast (SCons (SLit 97) (SCons SOne (SCons SRun (SCons (SClass true [(98, 100); (120, 120)])
        (SCons (SGroup (SMore (SCons (SEsc 42) SNil) false (SMore (SCons (SLit 101) SNil) true (SLast (SCons (SLit 102) (SCons (SLit 46) SNil))))))
         SNil))))).

(* FULL statement of translate_correct: as proved above but with [wf_pattern] allowing any character
   except ] [ - ^ as a class member.  It is FALSE for the code (finding F24): SetPattern rewrites
   , . + * ? and backslash inside brackets too. *)
Lemma class_meta_refuted :
  exists neg items c,
    class_has neg items c = true /\
    matches (fst (set_pattern ere_engine sm_init (print_pattern false (SLast (SCons (SClass neg items) SNil))) true)) [c] = false.
Proof. exists false, [(44, 44)], 44. vm_compute. split; reflexivity. Qed.

(* the same class matches the bar instead *)
Lemma class_meta_refuted_bar :
  class_has false [(44, 44)] 124 = false /\
  matches (fst (set_pattern ere_engine sm_init (print_pattern false (SLast (SCons (SClass false [(44, 44)]) SNil))) true)) [124] = true.
Proof. vm_compute. split; reflexivity. Qed.

Lemma print_num_inj : forall a b, print_num a = print_num b -> a = b.
Proof. intros a b H. rewrite <- (print_num_val a), <- (print_num_val b), H. reflexivity. Qed.

(* FULL statement for range lists: Match p s = true <-> den_ranges cs s, for every subject s.
   FALSE for the code in two ways. *)
(* F25: only the leading digits of the subject are read *)
Lemma range_junk_refuted :
  exists cs s,
    ~ den_ranges cs s /\
    matches (fst (set_pattern ere_engine sm_init (print_range_pattern false cs) true)) s = true.
Proof.
  exists [RBetween 10 20], [49; 50; 97; 98; 99]. split; [|vm_compute; reflexivity].
  intros (v & E & _).
  pose proof (print_num_digits v) as D. rewrite <- E in D. vm_compute in D. discriminate.
Qed.

(* F26: the subject's value is reduced modulo 2^32 *)
Lemma range_wrap_refuted :
  exists cs s,
    ~ den_ranges cs s /\
    matches (fst (set_pattern ere_engine sm_init (print_range_pattern false cs) true)) s = true.
Proof.
  exists [RSingle 1], (print_num 4294967297). split; [|vm_compute; reflexivity].
  intros (v & E & H). apply print_num_inj in E. subst v. vm_compute in H. discriminate.
Qed.

Definition model_ops (engine : list N -> rx) : pat_ops :=
  mkOps (sm_match engine) (sm_unique engine) (fun p => is_uvlist (sm_of engine p)) unescape escape.

Section EngineLaws.
  Variable engine : list N -> rx.
  Hypothesis engine_is_ere : forall re, ere_compile re <> CUnsupported -> engine re = ere_engine re.

  Lemma model_laws :
    unique_sound_law (model_ops engine) /\ multi_complete_law (model_ops engine) /\
    escape_exact_law (model_ops engine) /\ escape_unique_law (model_ops engine) /\
    uvlist_sound_law (model_ops engine) uv_values /\ uvlist_not_unique_law (model_ops engine).
  Proof.
    repeat apply conj.
    - intros p t H. exact (unique_exact engine engine_is_ere p sm_init t H).
    - intros p t1 t2. exact (multi_complete engine engine_is_ere p sm_init t1 t2).
    - intros s t. exact (escape_exact engine engine_is_ere s sm_init t).
    - intros s. split; [exact (escape_unique engine s sm_init) | apply unescape_escape].
    - (* the traversal looks up the non-empty values only *)
      intros p t Hu Hne. cbn [model_ops po_match po_uvlist] in *. unfold sm_match, sm_of in *.
      rewrite (uvlist_exact engine engine_is_ere p sm_init t Hu).
      unfold uv_values. rewrite filter_In. split; [|tauto].
      intros H. split; [exact H|]. destruct t; [congruence | reflexivity].
    - (* "only commas" already answers "can match several" *)
      intros p Hu. cbn [model_ops po_unique po_uvlist] in *. unfold sm_unique, sm_of in *.
      apply uvlist_only_commas in Hu.
      destruct (is_unique (fst (set_pattern engine sm_init p true))) eqn:E; [|reflexivity].
      apply unique_iff in E. exfalso.
      pose proof Hu as Hl. rewrite (cm_loop p (or_intror Hu)) in Hl, E. rewrite (cw_fst _ _ _ false Hl) in E. discriminate E.
  Qed.
End EngineLaws.
