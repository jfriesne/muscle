(* C15 -- EreProofs.v : what the derivative matcher of Pat/Ere.v computes.

   [cden r b s e] : the regular expression [r] matches exactly the string [s] when that
   occurrence starts at the beginning of the subject iff [b] and ends at its end iff [e]
   (the two bits are all the context the anchors ^ and $ can see).
   Main results:
     mfull_spec     mfull b r s = true <-> cden r b s true
     ere_exec_spec  ere_exec r s = true <-> some infix of s is matched by r in its context *)
From Coq Require Import List NArith Bool.
From Muscle Require Import Pat.Ere.
Import ListNotations.
Local Open Scope N_scope.

Definition isnil (s : list N) : bool := match s with [] => true | _ => false end.

Inductive cden : ere -> bool -> list N -> bool -> Prop :=
| CEps : forall b e, cden EEps b [] e
| CChar : forall c b e, cden (EChar c) b [c] e
| CAny : forall c b e, cden EAny b [c] e
| CSet : forall neg items c b e, xorb neg (in_items c items) = true -> cden (ESet neg items) b [c] e
| CBol : forall e, cden EBol true [] e
| CEol : forall b, cden EEol b [] true
| CCat : forall r1 r2 b e s1 s2,
    cden r1 b s1 (e && isnil s2) -> cden r2 (b && isnil s1) s2 e -> cden (ECat r1 r2) b (s1 ++ s2) e
| CAltL : forall r1 r2 b e s, cden r1 b s e -> cden (EAlt r1 r2) b s e
| CAltR : forall r1 r2 b e s, cden r2 b s e -> cden (EAlt r1 r2) b s e
| CStar0 : forall r b e, cden (EStar r) b [] e
| CStarS : forall r b e s1 s2,
    cden r b s1 (e && isnil s2) -> cden (EStar r) (b && isnil s1) s2 e -> cden (EStar r) b (s1 ++ s2) e
| CGroup : forall r b e s, cden r b s e -> cden (EGroup r) b s e.

#[local] Hint Constructors cden : core.

Lemma cden_empty : forall b s e, cden EEmpty b s e <-> False.
Proof. intros; split; intros H; inversion H. Qed.

Lemma cden_eps : forall b s e, cden EEps b s e <-> s = [].
Proof. intros; split; intros H; [inversion H; reflexivity | subst; auto]. Qed.

Lemma cden_cat : forall r1 r2 b s e, cden (ECat r1 r2) b s e <->
  exists s1 s2, s = s1 ++ s2 /\ cden r1 b s1 (e && isnil s2) /\ cden r2 (b && isnil s1) s2 e.
Proof. intros; split; [intros H; inversion H; subst; eauto | intros (s1 & s2 & -> & H1 & H2); auto]. Qed.

Lemma cden_alt : forall r1 r2 b s e, cden (EAlt r1 r2) b s e <-> cden r1 b s e \/ cden r2 b s e.
Proof. intros; split; [intros H; inversion H; subst; auto | intros [H|H]; auto]. Qed.

Lemma cden_group : forall r b s e, cden (EGroup r) b s e <-> cden r b s e.
Proof. intros; split; [intros H; inversion H; subst; auto | auto]. Qed.

Lemma cden_char : forall c b s e, cden (EChar c) b s e <-> s = [c].
Proof. intros; split; intros H; [inversion H; reflexivity | subst; auto]. Qed.

Lemma cden_any : forall b s e, cden EAny b s e <-> exists c, s = [c].
Proof. intros; split; intros H; [inversion H; eauto | destruct H as [c ->]; auto]. Qed.

Lemma cden_set : forall neg items b s e,
  cden (ESet neg items) b s e <-> exists c, s = [c] /\ xorb neg (in_items c items) = true.
Proof.
  intros; split; intros H.
  - inversion H; subst. eauto.
  - destruct H as (c & -> & H). constructor. exact H.
Qed.

Lemma isnil_app : forall s1 s2, isnil (s1 ++ s2) = isnil s1 && isnil s2.
Proof. intros [|c s1] s2; reflexivity. Qed.

(* a star can always be unrolled with a non-empty first iteration *)
Lemma cden_star_inv : forall r b s e, cden (EStar r) b s e ->
  s = [] \/ exists c s1 s2, s = (c :: s1) ++ s2 /\ cden r b (c :: s1) (e && isnil s2) /\ cden (EStar r) false s2 e.
Proof.
  intros r b s e H.
  remember (EStar r) as r' eqn:Er.
  induction H; try discriminate.
  - left; reflexivity.
  - inversion Er; subst r0; clear Er.
    destruct s1 as [|c s1].
    + cbn [isnil andb app] in *. rewrite andb_true_r in *.
      apply IHcden2; reflexivity.
    + right. exists c, s1, s2. cbn [isnil] in H0. rewrite andb_false_r in H0. auto.
Qed.

Lemma nullable_sound : forall r b e, nullable b e r = true -> cden r b [] e.
Proof.
  induction r; intros b e H; cbn [nullable] in H; try discriminate; auto.
  - subst b; auto.
  - subst e; auto.
  - apply andb_true_iff in H as [H1 H2].
    change (@nil N) with (@nil N ++ []).
    constructor; cbn [isnil]; rewrite andb_true_r; auto.
  - apply orb_true_iff in H as [H|H]; auto.
Qed.

Lemma nullable_complete : forall r b s e, cden r b s e -> s = [] -> nullable b e r = true.
Proof.
  induction 1; intros Es; cbn [nullable]; try discriminate; auto.
  - apply app_eq_nil in Es as [E1 E2]; subst.
    cbn [isnil] in *. rewrite andb_true_r in *.
    rewrite IHcden1, IHcden2; auto.
  - rewrite IHcden; auto.
  - rewrite IHcden; auto using orb_true_r.
Qed.

Lemma nullable_spec : forall r b e, nullable b e r = true <-> cden r b [] e.
Proof. split; [apply nullable_sound | intros H; eapply nullable_complete; eauto]. Qed.

Lemma mk_cat_spec : forall a r b s e, cden (mk_cat a r) b s e <-> cden (ECat a r) b s e.
Proof.
  intros a r b s e.
  assert (El : forall x, cden (ECat EEmpty x) b s e <-> cden EEmpty b s e).
  { intros x. rewrite cden_cat, cden_empty. split; [intros (s1 & s2 & _ & H & _); apply cden_empty in H; exact H | tauto]. }
  assert (Er : forall x, cden (ECat x EEmpty) b s e <-> cden EEmpty b s e).
  { intros x. rewrite cden_cat, cden_empty. split; [intros (s1 & s2 & _ & _ & H); apply cden_empty in H; exact H | tauto]. }
  assert (Ee : forall x, cden (ECat EEps x) b s e <-> cden x b s e).
  { intros x. rewrite cden_cat. split.
    - intros (s1 & s2 & -> & H1 & H2). apply cden_eps in H1. subst. cbn [isnil app] in *. rewrite andb_true_r in H2. exact H2.
    - intros H. exists [], s. cbn [isnil app]. rewrite andb_true_r. auto. }
  destruct a; cbn [mk_cat]; try (symmetry; apply El);
    destruct r; cbn [mk_cat]; try (symmetry; apply Er); try (symmetry; apply Ee); reflexivity.
Qed.

Lemma mk_alt_spec : forall a r b s e, cden (mk_alt a r) b s e <-> cden (EAlt a r) b s e.
Proof.
  intros a r b s e. rewrite cden_alt.
  destruct a; destruct r; cbn [mk_alt]; rewrite ?cden_alt, ?cden_empty; tauto.
Qed.

(* by induction on the expression; the star case needs the unrolling of cden_star_inv *)
Lemma deriv_spec : forall r b c s e, cden (deriv b c r) false s e <-> cden r b (c :: s) e.
Proof.
  induction r; intros b c0 s e; cbn [deriv]; try (split; intros H; inversion H; fail).
  - rewrite cden_char. destruct (N.eqb_spec c0 c) as [->|Hne]; [rewrite cden_eps | rewrite cden_empty]; split.
    + intros ->. reflexivity.
    + intros H. inversion H. reflexivity.
    + tauto.
    + intros H. inversion H. congruence.
  - rewrite cden_eps, cden_any. split; [intros ->; eauto | intros [d H]; inversion H; reflexivity].
  - rewrite cden_set. destruct (xorb neg (in_items c0 items)) eqn:E; [rewrite cden_eps | rewrite cden_empty]; split.
    + intros ->. eauto.
    + intros (d & H & _). inversion H. reflexivity.
    + tauto.
    + intros (d & H & Hd). inversion H; subst. congruence.
  - (* ECat: the character is read by r1, or r1 matches the empty string here and r2 reads it *)
    assert (L : cden (mk_cat (deriv b c0 r1) r2) false s e <->
                exists s1 s2, s = s1 ++ s2 /\ cden r1 b (c0 :: s1) (e && isnil s2) /\ cden r2 false s2 e).
    { rewrite mk_cat_spec, cden_cat. setoid_rewrite IHr1. reflexivity. }
    assert (R : cden (ECat r1 r2) b (c0 :: s) e <->
                (nullable b false r1 = true /\ cden (deriv b c0 r2) false s e) \/
                exists s1 s2, s = s1 ++ s2 /\ cden r1 b (c0 :: s1) (e && isnil s2) /\ cden r2 false s2 e).
    { rewrite cden_cat, nullable_spec, IHr2. split.
      - intros ([|c1 s1] & s2 & E & H1 & H2); cbn [app isnil] in *.
        + subst s2. rewrite andb_false_r in H1. rewrite andb_true_r in H2. auto.
        + inversion E; subst. rewrite andb_false_r in H2. right. eauto.
      - intros [[H1 H2]|(s1 & s2 & -> & H1 & H2)].
        + exists [], (c0 :: s). cbn [app isnil]. rewrite andb_false_r, andb_true_r. auto.
        + exists (c0 :: s1), s2. cbn [app isnil]. rewrite andb_false_r. auto. }
    rewrite R. destruct (nullable b false r1); [rewrite mk_alt_spec, cden_alt|]; rewrite L; intuition discriminate.
  - rewrite mk_alt_spec, !cden_alt, IHr1, IHr2. reflexivity.
  - rewrite mk_cat_spec, cden_cat. setoid_rewrite IHr. split.
    + intros (s1 & s2 & -> & H1 & H2). change (c0 :: s1 ++ s2) with ((c0 :: s1) ++ s2).
      eapply CStarS; [exact H1|]. cbn [isnil]. rewrite andb_false_r. exact H2.
    + intros H. apply cden_star_inv in H as [H|(c & s1 & s2 & E & H1 & H2)]; [discriminate|].
      inversion E; subst. exists s1, s2. auto.
  - rewrite cden_group. apply IHr.
Qed.

Lemma mfull_spec : forall s r b, mfull b r s = true <-> cden r b s true.
Proof.
  induction s as [|c s IH]; intros r b; cbn [mfull].
  - apply nullable_spec.
  - rewrite IH. apply deriv_spec.
Qed.

(* .* matches everything, in every context *)
Lemma any_star_all : forall s b e, cden any_star b s e.
Proof.
  induction s as [|c s IH]; intros b e; unfold any_star in *.
  - auto.
  - change (c :: s) with ([c] ++ s). eapply CStarS; auto.
Qed.

(* regexec: some occurrence inside the subject *)
Theorem ere_exec_spec : forall r s,
  ere_exec r s = true <->
  exists pre mid post, s = pre ++ mid ++ post /\ cden r (isnil pre) mid (isnil post).
Proof.
  intros r s. unfold ere_exec. rewrite mfull_spec. split.
  - intros H.
    apply cden_cat in H as (pre & rest & Es & _ & H).
    apply cden_cat in H as (mid & post & Er & H & _).
    subst. exists pre, mid, post. split; [reflexivity | exact H].
  - intros (pre & mid & post & Es & H). subst.
    constructor; [apply any_star_all|].
    constructor; [|apply any_star_all].
    cbn [andb]. exact H.
Qed.

(* the shape SetPattern produces: ^( r )$ finds an occurrence iff r matches the whole subject *)
Definition anchored (r : ere) : ere := ECat (ECat EBol (EGroup r)) EEol.

Theorem ere_exec_anchored : forall r s, ere_exec (anchored r) s = true <-> cden r true s true.
Proof.
  intros r s. unfold anchored. rewrite ere_exec_spec. split.
  - intros (pre & mid & post & Es & H).
    apply cden_cat in H as (m1 & m2 & Em & H1 & H2).
    apply cden_cat in H1 as (m0 & m1' & Em1 & H0 & H1).
    inversion H0; subst. inversion H2; subst.
    rewrite cden_group in H1.
    destruct pre; [|discriminate]. destruct post; [|cbn in *; discriminate].
    cbn [app isnil andb] in *. rewrite !app_nil_r. exact H1.
  - intros H. exists [], s, []. rewrite app_nil_r. split; [reflexivity|].
    cbn [isnil].
    replace s with (([] ++ s) ++ []) by (rewrite app_nil_r; reflexivity).
    constructor; [|cbn [isnil andb]; rewrite ?app_nil_r; constructor].
    constructor; [constructor|]. cbn [isnil andb]. constructor. exact H.
Qed.
