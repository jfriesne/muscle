(* C15 -- SimpleParse.v : a reader for the documented wildcard grammar of Pat/Simple.v.

   [sparse p] returns the syntax tree of the pattern string p when p is written in the documented
   grammar (with the restrictions of [wf_pattern]), and None otherwise.  It lets the theorems, which
   quantify over syntax trees, be read as statements about pattern STRINGS (sparse_sound in
   SimpleParseComplete.v), and lets the model driver report which generated patterns lie inside the
   theorem's domain.  Recursive descent on explicit fuel (the string length suffices).
   No proofs in this file. *)
From Coq Require Import List NArith Bool.
From Muscle Require Import Pat.Ere Pat.Simple.
Import ListNotations.
Local Open Scope N_scope.

(* the members of a class, up to the closing bracket *)
Fixpoint parse_items (fuel : nat) (s : list N) : option (list (N * N) * list N) :=
  match fuel with
  | O => None
  | S f =>
      match s with
      | c :: r =>
          if c =? ch_rbr then Some ([], r)
          else if class_ok c then
            match r with
            | m :: d :: r2 =>
                if (m =? ch_minus) && class_ok d && (c <? d) then
                  match parse_items f r2 with Some (its, r3) => Some ((c, d) :: its, r3) | None => None end
                else
                  match parse_items f r with Some (its, r3) => Some ((c, c) :: its, r3) | None => None end
            | _ => match parse_items f r with Some (its, r3) => Some ((c, c) :: its, r3) | None => None end
            end
          else None
      | [] => None
      end
  end.

Definition is_sep (c : N) : bool := (c =? ch_bar) || (c =? ch_comma).

Section WithAlt.
  (* the reader for a parenthesised alternation (one level less fuel) *)
  Variable palt : list N -> option (salt * list N).
  Variable f : nat.

  Definition parse_atom (s : list N) : option (satom * list N) :=
    match s with
    | c :: r =>
        if c =? ch_star then Some (SRun, r)
        else if c =? ch_qm then Some (SOne, r)
        else if c =? ch_bsl then (match r with d :: r2 => Some (SEsc d, r2) | [] => None end)
        else if c =? ch_lbr then
          (match r with
           | h :: r2 =>
               if h =? ch_hat then
                 match parse_items f r2 with
                 | Some (it :: its, r3) => Some (SClass true (it :: its), r3)
                 | _ => None
                 end
               else
                 match parse_items f r with
                 | Some (it :: its, r3) => Some (SClass false (it :: its), r3)
                 | _ => None
                 end
           | [] => None
           end)
        else if c =? ch_lpar then
          (match palt r with
           | Some (al, c2 :: r2) => if c2 =? ch_rpar then Some (SGroup al, r2) else None
           | _ => None
           end)
        else if lit_ok c then Some (SLit c, r)
        else None
    | [] => None
    end.

  Fixpoint parse_branch (g : nat) (s : list N) : option (sbranch * list N) :=
    match g with
    | O => None
    | S g' =>
        match s with
        | [] => Some (SNil, [])
        | c :: _ =>
            if is_sep c || (c =? ch_rpar) then Some (SNil, s)
            else match parse_atom s with
                 | Some (a, r) => match parse_branch g' r with Some (b, r2) => Some (SCons a b, r2) | None => None end
                 | None => None
                 end
        end
    end.
End WithAlt.

Fixpoint parse_alt (fuel : nat) (s : list N) : option (salt * list N) :=
  match fuel with
  | O => None
  | S f =>
      match parse_branch (parse_alt f) f (S (length s)) s with
      | Some (b, c :: r) =>
          if is_sep c then
            match parse_alt f r with Some (al, r2) => Some (SMore b (c =? ch_comma) al, r2) | None => None end
          else Some (SLast b, c :: r)
      | Some (b, []) => Some (SLast b, [])
      | None => None
      end
  end.

Definition sparse (p : list N) : option salt :=
  match parse_alt (S (length p)) p with
  | Some (al, []) => if head_ok p then Some al else None
  | _ => None
  end.
