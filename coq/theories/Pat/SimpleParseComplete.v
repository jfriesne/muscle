(* C15 -- SimpleParseComplete.v : the reader of Pat/SimpleParse.v accepts exactly the concrete syntax of the
   well-formed trees.  Sound:  sparse p = Some al -> p = print_alt al /\ wf_pattern al = true;  complete:
   wf_pattern al = true -> sparse (print_alt al) = Some al.  So the string-level theorems are exactly as general
   as the tree-level ones, and the concrete syntax is unambiguous. *)
From Coq Require Import List Arith NArith Bool Lia.
From Muscle Require Import Pat.Ere Pat.Simple Pat.SimpleParse.
Import ListNotations.
Local Open Scope N_scope.

Lemma parse_items_sound : forall f s its r,
  parse_items f s = Some (its, r) ->
  s = print_items its ++ ch_rbr :: r /\ forallb item_ok its = true.
Proof.
  induction f as [|f IH]; intros s its r H; [discriminate H|].
  cbn [parse_items] in H. destruct s as [|c s']; [discriminate H|].
  destruct (c =? ch_rbr) eqn:Er.
  - inversion H; subst. apply N.eqb_eq in Er. subst c. split; reflexivity.
  - destruct (class_ok c) eqn:Ec; [|discriminate H].
    assert (Hsingle : forall t,
              match parse_items f t with Some (its', r3) => Some ((c, c) :: its', r3) | None => None end = Some (its, r) ->
              c :: t = print_items its ++ ch_rbr :: r /\ forallb item_ok its = true).
    { intros t E. destruct (parse_items f t) as [[its' r3]|] eqn:E'; [|discriminate E]. inversion E; subst.
      apply IH in E' as [E1 E2]. subst t. split.
      - cbn [print_items]. unfold print_item. cbn [fst snd]. rewrite N.eqb_refl. reflexivity.
      - cbn [forallb]. rewrite E2. unfold item_ok. cbn [fst snd]. rewrite Ec, N.leb_refl. reflexivity. }
    destruct s' as [|m [|d r2]]; [exact (Hsingle _ H) | exact (Hsingle _ H) |].
    destruct ((m =? ch_minus) && class_ok d && (c <? d)) eqn:Em; [|exact (Hsingle _ H)].
    apply andb_true_iff in Em as [Em Hlt]. apply andb_true_iff in Em as [Em Hd].
    apply N.eqb_eq in Em. subst m. apply N.ltb_lt in Hlt.
    destruct (parse_items f r2) as [[its' r3]|] eqn:E; [|discriminate H]. inversion H; subst.
    apply IH in E as [E1 E2]. subst r2. split.
    + cbn [print_items]. unfold print_item. cbn [fst snd].
      replace (c =? d) with false by (symmetry; apply N.eqb_neq; lia). reflexivity.
    + cbn [forallb]. rewrite E2. unfold item_ok. cbn [fst snd]. rewrite Ec, Hd.
      replace (c <=? d) with true by (symmetry; apply N.leb_le; lia). reflexivity.
Qed.

Section WithAlt.
  Variable palt : list N -> option (salt * list N).
  Variable f : nat.
  Hypothesis palt_sound : forall s al r, palt s = Some (al, r) -> s = print_alt al ++ r /\ wf_alt al = true.

  Lemma parse_atom_sound : forall s a r,
    parse_atom palt f s = Some (a, r) -> s = print_atom a ++ r /\ wf_atom a = true.
  Proof.
    intros s a r H. unfold parse_atom in H. destruct s as [|c s']; [discriminate H|].
    destruct (c =? ch_star) eqn:E1; [apply N.eqb_eq in E1; inversion H; subst; split; reflexivity|].
    destruct (c =? ch_qm) eqn:E2; [apply N.eqb_eq in E2; inversion H; subst; split; reflexivity|].
    destruct (c =? ch_bsl) eqn:E3.
    { apply N.eqb_eq in E3. destruct s' as [|d r2]; [discriminate H|]. inversion H; subst. split; reflexivity. }
    destruct (c =? ch_lbr) eqn:E4.
    { apply N.eqb_eq in E4. subst c. destruct s' as [|h r2]; [discriminate H|].
      destruct (h =? ch_hat) eqn:Eh.
      - apply N.eqb_eq in Eh. subst h.
        destruct (parse_items f r2) as [[[|it its] r3]|] eqn:E; try discriminate H. inversion H; subst.
        apply parse_items_sound in E as [Ea Eb]. subst r2. split.
        + cbn [print_atom app]. rewrite <- app_assoc. reflexivity.
        + cbn [wf_atom]. rewrite Eb. reflexivity.
      - destruct (parse_items f (h :: r2)) as [[[|it its] r3]|] eqn:E; try discriminate H. inversion H; subst.
        apply parse_items_sound in E as [Ea Eb]. split.
        + cbn [print_atom app]. rewrite <- app_assoc. cbn [app]. rewrite Ea. reflexivity.
        + cbn [wf_atom]. rewrite Eb. reflexivity. }
    destruct (c =? ch_lpar) eqn:E5.
    { apply N.eqb_eq in E5. subst c.
      destruct (palt s') as [[al [|c2 r2]]|] eqn:E; try discriminate H.
      destruct (c2 =? ch_rpar) eqn:E6; [|discriminate H]. apply N.eqb_eq in E6. subst c2. inversion H; subst.
      apply palt_sound in E as [Ea Eb]. subst s'. split.
      - cbn [print_atom app]. rewrite <- app_assoc. reflexivity.
      - exact Eb. }
    destruct (lit_ok c) eqn:E6; [|discriminate H]. inversion H; subst. split; [reflexivity | exact E6].
  Qed.

  Lemma parse_branch_sound : forall g s b r,
    parse_branch palt f g s = Some (b, r) -> s = print_branch b ++ r /\ wf_branch b = true.
  Proof.
    induction g as [|g IH]; intros s b r H; [discriminate H|].
    cbn [parse_branch] in H. destruct s as [|c s']; [inversion H; subst; split; reflexivity|].
    destruct (is_sep c || (c =? ch_rpar)); [inversion H; subst; split; reflexivity|].
    destruct (parse_atom palt f (c :: s')) as [[a r1]|] eqn:Ea; [|discriminate H].
    destruct (parse_branch palt f g r1) as [[b' r2]|] eqn:Eb; [|discriminate H]. inversion H; subst.
    apply parse_atom_sound in Ea as [A1 A2]. apply IH in Eb as [B1 B2]. subst r1. split.
    - rewrite A1. cbn [print_branch]. rewrite <- app_assoc. reflexivity.
    - cbn [wf_branch]. rewrite A2, B2. reflexivity.
  Qed.
End WithAlt.

Lemma parse_alt_sound : forall fuel s al r,
  parse_alt fuel s = Some (al, r) -> s = print_alt al ++ r /\ wf_alt al = true.
Proof.
  induction fuel as [|f IH]; intros s al r H; [discriminate H|].
  cbn [parse_alt] in H.
  destruct (parse_branch (parse_alt f) f (S (length s)) s) as [[b [|c r1]]|] eqn:Eb; try discriminate H.
  - inversion H; subst. apply (parse_branch_sound _ _ IH) in Eb. exact Eb.
  - apply (parse_branch_sound _ _ IH) in Eb as [B1 B2].
    destruct (is_sep c) eqn:Es.
    + destruct (parse_alt f r1) as [[al' r2]|] eqn:Ea; [|discriminate H]. inversion H; subst.
      apply IH in Ea as [A1 A2]. subst r1. split.
      * cbn [print_alt]. rewrite <- app_assoc. cbn [app].
        unfold is_sep in Es. destruct (c =? ch_comma) eqn:Ec.
        -- apply N.eqb_eq in Ec. subst c. reflexivity.
        -- rewrite orb_false_r in Es. apply N.eqb_eq in Es. subst c. reflexivity.
      * cbn [wf_alt]. rewrite B2, A2. reflexivity.
    + inversion H; subst. split; [reflexivity | exact B2].
Qed.

Theorem sparse_sound : forall p al, sparse p = Some al -> p = print_alt al /\ wf_pattern al = true.
Proof.
  intros p al H. unfold sparse in H.
  destruct (parse_alt (S (length p)) p) as [[al' [|c r]]|] eqn:E; try discriminate H.
  destruct (head_ok p) eqn:Eh; [|discriminate H]. inversion H; subst al'.
  apply parse_alt_sound in E as [E1 E2]. rewrite app_nil_r in E1. split; [exact E1|].
  unfold wf_pattern. rewrite E2. rewrite <- E1. exact Eh.
Qed.

Lemma excluded_ne : forall c l k, existsb (N.eqb c) l = false -> In k l -> (c =? k) = false.
Proof.
  intros c l k H Hk. destruct (c =? k) eqn:E; [|reflexivity]. apply N.eqb_eq in E. subst k.
  rewrite <- H. symmetry. apply existsb_exists. exists c. split; [exact Hk | apply N.eqb_refl].
Qed.

Lemma class_ok_facts : forall c, class_ok c = true ->
  (c =? ch_rbr) = false /\ (c =? ch_minus) = false /\ (c =? ch_hat) = false.
Proof. intros c H. apply negb_true_iff in H. repeat split; apply (excluded_ne c _ _ H); cbn; tauto. Qed.

Lemma lit_ok_facts : forall c, lit_ok c = true ->
  (c =? ch_star) = false /\ (c =? ch_qm) = false /\ (c =? ch_bsl) = false /\ (c =? ch_lbr) = false /\
  (c =? ch_lpar) = false /\ (c =? ch_rpar) = false /\ (c =? ch_bar) = false /\ (c =? ch_comma) = false.
Proof. intros c H. apply negb_true_iff in H. repeat split; apply (excluded_ne c _ _ H); cbn; tauto. Qed.

(* the members of a class, followed by the closing bracket, start with neither '-' nor '^' *)
Lemma items_head : forall items rest, forallb item_ok items = true ->
  exists c r, print_items items ++ ch_rbr :: rest = c :: r /\ (c =? ch_minus) = false /\ (c =? ch_hat) = false.
Proof.
  intros [|[lo hi] t] rest H; [exists ch_rbr, rest; repeat split|].
  cbn [forallb] in H. apply andb_true_iff in H as [Hi _]. unfold item_ok in Hi. cbn [fst] in Hi.
  apply andb_true_iff in Hi as [Hi _]. apply andb_true_iff in Hi as [Hlo _].
  cbn [print_items]. unfold print_item. cbn [fst snd].
  destruct (lo =? hi); cbn [app]; eexists; eexists; (split; [reflexivity | apply (class_ok_facts lo Hlo)]).
Qed.

Lemma parse_items_complete : forall items rest f,
  forallb item_ok items = true -> (length (print_items items) < f)%nat ->
  parse_items f (print_items items ++ ch_rbr :: rest) = Some (items, rest).
Proof.
  induction items as [|[lo hi] t IH]; intros rest f Hok Hf.
  - destruct f as [|f]; [inversion Hf|]. reflexivity.
  - destruct f as [|f]; [inversion Hf|].
    cbn [forallb] in Hok. apply andb_true_iff in Hok as [Hi Ht].
    unfold item_ok in Hi. cbn [fst snd] in Hi. apply andb_true_iff in Hi as [Hi Hle].
    apply andb_true_iff in Hi as [Hlo Hhi]. apply N.leb_le in Hle.
    destruct (class_ok_facts lo Hlo) as (L1 & L2 & _).
    cbn [print_items] in *. rewrite app_length in Hf. unfold print_item in *. cbn [fst snd] in *.
    destruct (lo =? hi) eqn:E; cbn [length] in Hf; pose proof (IH rest f Ht ltac:(lia)) as P.
    + (* a single character: what follows it is not a '-' *)
      apply N.eqb_eq in E. subst hi. cbn [app parse_items]. rewrite L1, Hlo.
      destruct (items_head t rest Ht) as (m & r & Em & Hm & _). rewrite Em in *.
      destruct r as [|d r2]; [|rewrite Hm; cbn [andb]]; rewrite P; reflexivity.
    + (* a range *)
      apply N.eqb_neq in E. cbn [app parse_items]. rewrite L1, Hlo.
      change (ch_minus =? ch_minus) with true. rewrite Hhi.
      replace (lo <? hi) with true by (symmetry; apply N.ltb_lt; lia). cbn [andb]. rewrite P. reflexivity.
Qed.

Definition stop_char (c : N) : bool := is_sep c || (c =? ch_rpar).
Definition stops (rest : list N) : Prop := match rest with [] => True | c :: _ => stop_char c = true end.
Definition closes (rest : list N) : Prop := match rest with [] => True | c :: _ => c = ch_rpar end.

Lemma atom_head : forall a, wf_atom a = true ->
  exists c t, print_atom a = c :: t /\ stop_char c = false.
Proof.
  intros a H. destruct a as [c|c| | |neg items|al]; cbn [print_atom]; eexists; eexists; (split; [reflexivity|]);
    try reflexivity.
  cbn [wf_atom] in H. destruct (lit_ok_facts c H) as (_ & _ & _ & _ & _ & R & B & C).
  unfold stop_char, is_sep. rewrite R, B, C. reflexivity.
Qed.

Lemma parse_complete :
  (forall a, wf_atom a = true -> forall f rest,
     (length (print_atom a) <= f)%nat ->
     parse_atom (parse_alt f) f (print_atom a ++ rest) = Some (a, rest)) /\
  (forall b, wf_branch b = true -> forall f g rest,
     stops rest -> (length (print_branch b) <= f)%nat -> (length (print_branch b) < g)%nat ->
     parse_branch (parse_alt f) f g (print_branch b ++ rest) = Some (b, rest)) /\
  (forall al, wf_alt al = true -> forall f rest,
     closes rest -> (length (print_alt al) < f)%nat ->
     parse_alt f (print_alt al ++ rest) = Some (al, rest)).
Proof.
  apply spat_mutind.
  - (* SLit *)
    intros c H f rest _. cbn [wf_atom] in H. cbn [print_atom app]. unfold parse_atom.
    destruct (lit_ok_facts c H) as (A1 & A2 & A3 & A4 & A5 & _). rewrite A1, A2, A3, A4, A5, H. reflexivity.
  - (* SEsc *)
    intros c _ f rest _. reflexivity.
  - intros _ f rest _. reflexivity.
  - intros _ f rest _. reflexivity.
  - (* SClass *)
    intros neg items H f rest Hf. cbn [wf_atom] in H. apply andb_true_iff in H as [Hne Hok].
    cbn [print_atom length] in Hf. rewrite !app_length in Hf. cbn [length] in Hf.
    assert (Hfi : (length (print_items items) < f)%nat) by lia.
    destruct items as [|it its]; [discriminate Hne|].
    pose proof (parse_items_complete (it :: its) rest f Hok Hfi) as P.
    cbn [print_atom]. unfold parse_atom.
    cbn [N.eqb Pos.eqb ch_lbr ch_star ch_qm ch_bsl].
    destruct neg; cbn [app]; rewrite <- app_assoc; cbn [app].
    + rewrite N.eqb_refl, P. reflexivity.
    + destruct (items_head (it :: its) rest Hok) as (h & r & Eh & _ & Hh). rewrite Eh in *. rewrite Hh, P. reflexivity.
  - (* SGroup *)
    intros al IH H f rest Hf. cbn [wf_atom] in H. cbn [print_atom length] in Hf. rewrite app_length in Hf. cbn [length] in Hf.
    cbn [print_atom]. unfold parse_atom.
    cbn [N.eqb Pos.eqb ch_lpar ch_star ch_qm ch_bsl ch_lbr].
    cbn [app]. rewrite <- app_assoc. cbn [app].
    rewrite (IH H f (ch_rpar :: rest)) by (try reflexivity; lia).
    rewrite N.eqb_refl. reflexivity.
  - (* SNil *)
    intros _ f g rest Hs _ Hg. destruct g as [|g]; [inversion Hg|]. cbn [print_branch app parse_branch].
    destruct rest as [|c r]; [reflexivity|]. cbn [stops] in Hs. unfold stop_char in Hs. rewrite Hs. reflexivity.
  - (* SCons *)
    intros a IHa b IHb H f g rest Hs Hf Hg. cbn [wf_branch] in H. apply andb_true_iff in H as [Ha Hb].
    cbn [print_branch] in *. rewrite app_length in Hf, Hg.
    destruct (atom_head a Ha) as (c & t & Ea & Hc).
    destruct g as [|g]; [inversion Hg|]. cbn [parse_branch].
    rewrite <- app_assoc.
    remember (print_atom a ++ print_branch b ++ rest) as s eqn:Es.
    assert (Hhead : exists r0, s = c :: r0) by (rewrite Es, Ea; eexists; reflexivity).
    destruct Hhead as [r0 Er0]. rewrite Er0. unfold stop_char in Hc. rewrite Hc. rewrite <- Er0, Es.
    rewrite (IHa Ha f (print_branch b ++ rest)) by lia.
    rewrite Ea in Hg. cbn [length] in Hg.
    rewrite (IHb Hb f g rest Hs) by lia. reflexivity.
  - (* SLast *)
    intros b IHb H f rest Hc Hf. cbn [wf_alt] in H. cbn [print_alt] in *.
    destruct f as [|f]; [inversion Hf|]. cbn [parse_alt].
    assert (Hs : stops rest).
    { destruct rest as [|c r]; [exact I|]. cbn [closes] in Hc. subst c. reflexivity. }
    rewrite (IHb H f (S (length (print_branch b ++ rest))) rest Hs) by (rewrite ?app_length; lia).
    destruct rest as [|c r]; [reflexivity|]. cbn [closes] in Hc. subst c. reflexivity.
  - (* SMore *)
    intros b IHb comma r IHr H f rest Hc Hf. cbn [wf_alt] in H. apply andb_true_iff in H as [Hb Hr].
    cbn [print_alt] in *. rewrite app_length in Hf. cbn [length] in Hf.
    destruct f as [|f]; [inversion Hf|]. cbn [parse_alt].
    rewrite <- app_assoc. cbn [app].
    set (sepc := if comma then ch_comma else ch_bar) in *.
    assert (Hs : stops (sepc :: print_alt r ++ rest)) by (subst sepc; destruct comma; reflexivity).
    rewrite (IHb Hb f (S (length (print_branch b ++ sepc :: print_alt r ++ rest))) _ Hs)
      by (rewrite ?app_length; cbn [length]; lia).
    assert (Hsep : is_sep sepc = true) by (subst sepc; destruct comma; reflexivity).
    rewrite Hsep. rewrite (IHr Hr f rest Hc) by lia.
    subst sepc. destruct comma; reflexivity.
Qed.

Theorem sparse_complete : forall al, wf_pattern al = true -> sparse (print_alt al) = Some al.
Proof.
  intros al H. unfold wf_pattern in H. apply andb_true_iff in H as [Hwf Hh].
  unfold sparse. destruct parse_complete as (_ & _ & P).
  pose proof (P al Hwf (S (length (print_alt al))) [] I (Nat.lt_succ_diag_r _)) as E.
  rewrite app_nil_r in E. rewrite E, Hh. reflexivity.
Qed.

Theorem sparse_exact : forall p al, sparse p = Some al <-> (p = print_alt al /\ wf_pattern al = true).
Proof.
  intros p al. split; [apply sparse_sound|]. intros [Hp Hw]. subst p. apply sparse_complete; exact Hw.
Qed.
