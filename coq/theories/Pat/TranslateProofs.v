(* C15 -- TranslateProofs.v : lemmas about Pat/Translate.v.  First what SetPattern leaves in the object, in closed
   form; then the way from a pattern of the documented grammar to what it matches: tr_loop on the concrete syntax of
   each construct (over the translated tables, whose facts are checked by computation on the regenerated c_* values),
   the regex compiler of Pat/Ere.v on that text, and the expression it builds, which matches exactly what
   Pat/Simple.v says the pattern denotes (in every context: the documented constructs contain no anchors). *)
From Coq Require Import List Arith NArith Bool.
From Muscle Require Import Gen.Consts Pat.Ere Pat.EreProofs Pat.Translate Pat.Simple.
Import ListNotations.
Local Open Scope N_scope.
#[local] Hint Constructors cden : core.

Definition sp_flags (p : list N) (simple : bool) : bool * bool :=
  if simple then can_match_multiple p else (has_regex_tokens p, false).
Definition sp_negate (p : list N) (simple : bool) : bool := if simple then fst (strip_negate p) else false.
Definition sp_ranges (p : list N) (simple : bool) : list (N * N) :=
  if simple then fst (fst (simple_body (snd (strip_negate p)))) else [].

(* the object as it stands when regcomp is reached: nothing of the prior state [st0] survives except a compiled
   regex that was not valid, which stays unreachable behind the cleared REGEXVALID flag *)
Definition sp_object (st0 : sm) (p : list N) (simple : bool) : sm :=
  mkS p false (sp_negate p simple) (fst (sp_flags p simple)) simple
      (snd (sp_flags p simple) && is_nil (sp_ranges p simple) && negb (sp_negate p simple))
      (sp_ranges p simple) (if s_valid st0 then None else s_regexp st0).

Lemma set_pattern_eq : forall engine st0 p simple,
  set_pattern engine st0 p simple =
  match regex_string p simple with
  | None => (sp_object st0 p simple, true)
  | Some re => match engine re with
               | RxOk m => (set_regex (sp_object st0 p simple) true (Some m), true)
               | RxErr => (sp_object st0 p simple, false)
               end
  end.
Proof.
  intros engine [p0 v0 n0 m0 s0 u0 r0 x0] p simple.
  unfold set_pattern, regex_string, sp_object, sp_flags, sp_negate, sp_ranges. destruct simple.
  - destruct (can_match_multiple p) as [multi only], (strip_negate p) as [neg str]. cbn [fst snd].
    destruct (simple_body str) as [[ranges rp] str'].
    destruct v0, ranges; cbn; try reflexivity;
      destruct (is_nil (if is_nil rp then str' else rp)); try reflexivity;
      destruct (engine (if is_nil rp then str' else rp)); reflexivity.
  - destruct v0; cbn; destruct (is_nil p); try reflexivity; destruct (engine p); reflexivity.
Qed.

Lemma regex_string_no_ranges : forall p re, regex_string p true = Some re -> sp_ranges p true = [].
Proof.
  intros p re. unfold regex_string, sp_ranges.
  destruct (simple_body (snd (strip_negate p))) as [[[|r rs] rp] str]; [reflexivity | discriminate].
Qed.

Lemma matches_set_pattern : forall engine st0 p s,
  matches (fst (set_pattern engine st0 p true)) s =
  xorb (fst (strip_negate p))
       match sp_ranges p true with
       | [] => match regex_string p true with
               | Some re => match engine re with RxOk m => m s | RxErr => false end
               | None => false
               end
       | rs => match s with
               | c :: _ => if is_digit c then existsb (in_range (u32 (atoull s))) rs else false
               | [] => false
               end
       end.
Proof.
  intros engine st0 p s. rewrite set_pattern_eq.
  assert (M : forall st, matches st s = xorb (s_negate st) (match_raw st s)).
  { intros st. unfold matches. destruct (s_negate st), (match_raw st s); reflexivity. }
  destruct (regex_string p true) as [re|] eqn:Er.
  - pose proof (regex_string_no_ranges p re Er) as R.
    destruct (engine re); cbn [fst]; rewrite M; unfold match_raw, set_regex, sp_object;
      cbn [s_ranges s_valid s_regexp s_negate]; rewrite R; reflexivity.
  - cbn [fst]. rewrite M. unfold match_raw, sp_object. cbn [s_ranges s_valid s_regexp s_negate].
    destruct (sp_ranges p true); reflexivity.
Qed.

Lemma mem_In : forall c l, mem c l = true <-> In c l.
Proof.
  intros c l. unfold mem. rewrite existsb_exists. split.
  - intros (x & Hx & E). apply N.eqb_eq in E. subst; exact Hx.
  - intros H. exists c. split; [exact H | apply N.eqb_refl].
Qed.

Lemma mem_subset_false : forall small big c,
  forallb (fun k => mem k big) small = true -> mem c big = false -> mem c small = false.
Proof.
  intros small big c Hs Hb. destruct (mem c small) eqn:E; [|reflexivity].
  apply mem_In in E. rewrite forallb_forall in Hs. apply Hs in E. congruence.
Qed.

(* from  mem c [k1; ..; kn] = false  (or existsb) derive every  c =? ki = false *)
Ltac split_mem H :=
  unfold mem in H; cbn [existsb] in H;
  repeat (let H1 := fresh "Hne" in apply orb_false_iff in H; destruct H as [H1 H]);
  clear H.

Ltac kill_eqb :=
  repeat match goal with
         | Hne : (?c =? ?k) = false |- context [?c =? ?k] => rewrite Hne
         end.

Definition tr_specials : list N := [44; 63; 46; 43; 42; 92].   (* , ? . + * \ *)

Lemma tbl_keys_replace : c_sp_replace = [44; 124; 63; 46].
Proof. vm_compute. reflexivity. Qed.
Lemma tbl_keys_prefix : c_sp_prefix = [46; 92; 43; 92; 42; 46].
Proof. vm_compute. reflexivity. Qed.
Lemma tbl_escape : c_sp_escape = [92].
Proof. vm_compute. reflexivity. Qed.
(* every case label of the translation switch is accounted for by the three tables *)
Lemma tbl_switch_complete :
  N.of_nat (length c_sp_replace / 2 + length c_sp_prefix / 2 + length c_sp_escape)%nat = c_sp_ncases.
Proof. vm_compute. reflexivity. Qed.
Lemma tbl_tokens_complete :
  N.of_nat (length c_regex_tokens_always + length c_regex_tokens_first)%nat = c_regex_tokens_ncases.
Proof. vm_compute. reflexivity. Qed.
Lemma tbl_emit : c_sp_escape_emits_itself = 0.
Proof. vm_compute. reflexivity. Qed.
Lemma tbl_trailing : c_sp_trailing = [92; 92].
Proof. vm_compute. reflexivity. Qed.
Lemma tbl_prefix_for : c_sp_escaped_prefix_for = [46; 91; 93; 40; 41; 42; 43; 63; 123; 125; 124; 94; 36; 92].
Proof. vm_compute. reflexivity. Qed.
Lemma tbl_wrap : c_sp_regex_prefix = [94; 40] /\ c_sp_regex_suffix = [41; 36].
Proof. vm_compute. split; reflexivity. Qed.

Lemma action_none : forall c, mem c tr_specials = false -> action_of c = ANone.
Proof.
  intros c H. unfold tr_specials in H. split_mem H.
  unfold action_of. rewrite tbl_keys_replace, tbl_keys_prefix, tbl_escape.
  cbn [assoc mem existsb]. kill_eqb. reflexivity.
Qed.

Lemma action_star : action_of 42 = APrefix 46.  Proof. vm_compute. reflexivity. Qed.
Lemma action_qm : action_of 63 = ARepl 46.      Proof. vm_compute. reflexivity. Qed.
Lemma action_comma : action_of 44 = ARepl 124.  Proof. vm_compute. reflexivity. Qed.
Lemma action_dot : action_of 46 = APrefix 92.   Proof. vm_compute. reflexivity. Qed.
Lemma action_plus : action_of 43 = APrefix 92.  Proof. vm_compute. reflexivity. Qed.
Lemma action_bsl : action_of 92 = AEscape.      Proof. vm_compute. reflexivity. Qed.

Definition tr_plain (c : N) : bool := match action_of c with ANone => true | _ => false end.

Lemma tr_loop_plain : forall s rest,
  forallb tr_plain s = true -> tr_loop (s ++ rest) false = s ++ tr_loop rest false.
Proof.
  induction s as [|a s IH]; intros rest H; cbn [app]; [reflexivity|].
  cbn [forallb] in H. apply andb_true_iff in H as [Ha Hs].
  cbn [tr_loop]. unfold tr_plain in Ha. destruct (action_of a); try discriminate.
  rewrite IH; auto.
Qed.

Definition tr_esc (c : N) : list N := if mem c c_sp_escaped_prefix_for then [ch_bsl; c] else [c].

Lemma tr_loop_esc : forall c rest, tr_loop (ch_bsl :: c :: rest) false = tr_esc c ++ tr_loop rest false.
Proof.
  intros c rest. cbn [tr_loop]. unfold ch_bsl at 1. rewrite action_bsl, tbl_emit.
  cbn [N.eqb Pos.eqb app]. unfold tr_esc. reflexivity.
Qed.

Definition rx_lit (c : N) : list N :=
  match action_of c with APrefix p => [p; c] | ARepl d => [d] | _ => [c] end.

Lemma lit_ok_cases : forall c, lit_ok c = true -> mem c tr_specials = false \/ c = 46 \/ c = 43.
Proof.
  intros c H. destruct (mem c tr_specials) eqn:E; [|left; reflexivity].
  right. apply mem_In in E. cbn in E.
  destruct E as [<-|[<-|[<-|[<-|[<-|[<-|[]]]]]]]; try discriminate H; tauto.
Qed.

Lemma tr_loop_lit : forall c rest,
  lit_ok c = true -> tr_loop (c :: rest) false = rx_lit c ++ tr_loop rest false.
Proof.
  intros c rest H. cbn [tr_loop]. unfold rx_lit.
  destruct (lit_ok_cases c H) as [E|[->| ->]]; [rewrite (action_none c E)|..]; reflexivity.
Qed.

Definition class_text (neg : bool) (items : list (N * N)) : list N :=
  ch_lbr :: (if neg then [ch_hat] else []) ++ print_items items ++ [ch_rbr].

Fixpoint rx_atom (a : satom) : list N :=
  match a with
  | SLit c => rx_lit c
  | SEsc c => tr_esc c
  | SOne => [ch_dot]
  | SRun => [ch_dot; ch_star]
  | SClass neg items => class_text neg items
  | SGroup al => ch_lpar :: rx_alt al ++ [ch_rpar]
  end
with rx_branch (b : sbranch) : list N :=
  match b with
  | SNil => []
  | SCons a b' => rx_atom a ++ rx_branch b'
  end
with rx_alt (al : salt) : list N :=
  match al with
  | SLast b => rx_branch b
  | SMore b _ rest => rx_branch b ++ ch_bar :: rx_alt rest
  end.

Lemma class_ok_plain : forall c, class_ok c = true -> tr_plain c = true.
Proof.
  intros c H. unfold tr_plain. rewrite action_none; [reflexivity|].
  apply negb_true_iff in H. apply (mem_subset_false tr_specials class_excluded); [reflexivity | exact H].
Qed.

Lemma items_plain : forall items, forallb item_ok items = true -> forallb tr_plain (print_items items) = true.
Proof.
  induction items as [|[lo hi] t IH]; intros H; cbn [print_items]; [reflexivity|].
  cbn [forallb] in H. apply andb_true_iff in H as [Hi Ht].
  unfold item_ok in Hi. cbn [fst snd] in Hi.
  apply andb_true_iff in Hi as [Hi _]. apply andb_true_iff in Hi as [Hlo Hhi].
  rewrite forallb_app. rewrite IH by exact Ht. rewrite andb_true_r.
  unfold print_item. cbn [fst snd].
  assert (Hm : tr_plain ch_minus = true) by (vm_compute; reflexivity).
  destruct (lo =? hi); cbn [forallb];
    rewrite ?Hm, ?(class_ok_plain lo Hlo), ?(class_ok_plain hi Hhi); reflexivity.
Qed.

Lemma class_text_plain : forall neg items,
  forallb item_ok items = true -> forallb tr_plain (class_text neg items) = true.
Proof.
  intros neg items H. unfold class_text. cbn [forallb].
  rewrite !forallb_app. rewrite items_plain by exact H.
  destruct neg; vm_compute; reflexivity.
Qed.

Lemma tr_loop_syntax :
  (forall a, wf_atom a = true -> forall rest, tr_loop (print_atom a ++ rest) false = rx_atom a ++ tr_loop rest false) /\
  (forall b, wf_branch b = true -> forall rest, tr_loop (print_branch b ++ rest) false = rx_branch b ++ tr_loop rest false) /\
  (forall al, wf_alt al = true -> forall rest, tr_loop (print_alt al ++ rest) false = rx_alt al ++ tr_loop rest false).
Proof.
  apply spat_mutind.
  - (* SLit *)
    intros c H rest. apply tr_loop_lit. exact H.
  - (* SEsc *)
    intros c _ rest. cbn [print_atom rx_atom app]. apply tr_loop_esc.
  - (* SOne *)
    intros _ rest. cbn [print_atom rx_atom app tr_loop]. unfold ch_qm. rewrite action_qm. reflexivity.
  - (* SRun *)
    intros _ rest. cbn [print_atom rx_atom app tr_loop]. unfold ch_star. rewrite action_star. reflexivity.
  - (* SClass *)
    intros neg items H rest. cbn [wf_atom] in H. apply andb_true_iff in H as [_ H].
    change (print_atom (SClass neg items)) with (class_text neg items). cbn [rx_atom].
    apply tr_loop_plain. apply class_text_plain; exact H.
  - (* SGroup *)
    intros al IH H rest. cbn [wf_atom] in H. cbn [print_atom rx_atom].
    cbn [app]. rewrite <- !app_assoc. cbn [app].
    cbn [tr_loop]. replace (action_of ch_lpar) with ANone by (vm_compute; reflexivity).
    rewrite IH by exact H. cbn [tr_loop].
    replace (action_of ch_rpar) with ANone by (vm_compute; reflexivity). reflexivity.
  - (* SNil *)
    intros _ rest. reflexivity.
  - (* SCons *)
    intros a IHa b IHb H rest. cbn [wf_branch] in H. apply andb_true_iff in H as [Ha Hb].
    cbn [print_branch rx_branch]. rewrite <- !app_assoc. rewrite IHa by exact Ha. rewrite IHb by exact Hb.
    reflexivity.
  - (* SLast *)
    intros b IHb H rest. cbn [wf_alt] in H. cbn [print_alt rx_alt]. apply IHb; exact H.
  - (* SMore *)
    intros b IHb comma rest0 IHr H rest. cbn [wf_alt] in H. apply andb_true_iff in H as [Hb Hr].
    cbn [print_alt rx_alt]. rewrite <- !app_assoc. cbn [app]. rewrite IHb by exact Hb.
    f_equal. cbn [tr_loop].
    destruct comma.
    + unfold ch_comma. rewrite action_comma. rewrite IHr by exact Hr. reflexivity.
    + replace (action_of ch_bar) with ANone by (vm_compute; reflexivity). rewrite IHr by exact Hr. reflexivity.
Qed.

Definition pnorm (stk : list frame) (f : frame) : pstate := mkP stk f MNorm.

Lemma psteps_app : forall a b st,
  psteps (a ++ b) st = match psteps a st with SOk st' => psteps b st' | e => e end.
Proof.
  induction a as [|c a IH]; intros b st; cbn [app psteps]; [reflexivity|].
  destruct (pstep st c); [apply IH | reflexivity ..].
Qed.

Definition ere_specials : list N := [92; 40; 41; 124; 42; 43; 63; 123; 91; 46; 94; 36].  (* \ ( ) | * + ? { [ . ^ $ *)
Definition ere_lit (c : N) : bool := negb (mem c ere_specials).
Definition esc_lit (c : N) : bool := negb (mem c [119; 87; 115; 83]) && negb (is_gnu_unmodelled c).

Lemma step_lit : forall c stk f,
  ere_lit c = true -> pstep (pnorm stk f) c = SOk (pnorm stk (push_atom f (EChar c))).
Proof.
  intros c stk f H. unfold ere_lit in H. apply negb_true_iff in H. unfold ere_specials in H. split_mem H.
  unfold pstep, pnorm. cbn [p_mode]. unfold step_norm. cbn [p_cur p_stack].
  unfold ch_bsl, ch_lpar, ch_rpar, ch_bar, ch_star, ch_plus, ch_qm, ch_lbrace, ch_lbr, ch_dot, ch_hat, ch_dollar.
  kill_eqb. cbn [orb]. reflexivity.
Qed.

Lemma parse_lit : forall c stk f,
  ere_lit c = true -> psteps [c] (pnorm stk f) = SOk (pnorm stk (push_atom f (EChar c))).
Proof. intros c stk f H. cbn [psteps]. rewrite step_lit by exact H. reflexivity. Qed.

Lemma parse_esc : forall c stk f,
  esc_lit c = true -> psteps [ch_bsl; c] (pnorm stk f) = SOk (pnorm stk (push_atom f (EChar c))).
Proof.
  intros c stk f H. unfold esc_lit in H. apply andb_true_iff in H as [H1 H2].
  apply negb_true_iff in H1. apply negb_true_iff in H2. split_mem H1.
  cbn [psteps]. unfold pstep at 1. cbn [p_mode pnorm]. unfold step_norm. cbn [p_cur p_stack].
  cbn [N.eqb Pos.eqb ch_bsl].
  unfold pstep. cbn [p_mode]. unfold step_esc. cbn [p_cur p_stack]. kill_eqb. rewrite H2.
  reflexivity.
Qed.

Lemma tbl_prefix_for_esc_lit : forallb esc_lit c_sp_escaped_prefix_for = true.
Proof. vm_compute. reflexivity. Qed.
Lemma tbl_specials_in_prefix_for : forallb (fun k => mem k c_sp_escaped_prefix_for) ere_specials = true.
Proof. vm_compute. reflexivity. Qed.

(* an escaped character reaches the regex as a literal, whatever it is *)
Lemma parse_tr_esc : forall c stk f,
  psteps (tr_esc c) (pnorm stk f) = SOk (pnorm stk (push_atom f (EChar c))).
Proof.
  intros c stk f. unfold tr_esc. destruct (mem c c_sp_escaped_prefix_for) eqn:E.
  - apply parse_esc.
    apply mem_In in E. pose proof tbl_prefix_for_esc_lit as T. rewrite forallb_forall in T. apply T; exact E.
  - apply parse_lit. unfold ere_lit.
    rewrite (mem_subset_false _ _ c tbl_specials_in_prefix_for E). reflexivity.
Qed.

Lemma parse_rx_lit : forall c stk f,
  lit_ok c = true -> psteps (rx_lit c) (pnorm stk f) = SOk (pnorm stk (push_atom f (EChar c))).
Proof.
  intros c stk f H. destruct (lit_ok_cases c H) as [E|[E|E]].
  - unfold rx_lit. rewrite (action_none c E). apply parse_lit.
    apply negb_true_iff in H. apply negb_true_iff.
    apply (mem_subset_false ere_specials (lit_excluded ++ tr_specials)); [reflexivity|].
    unfold mem in *. rewrite existsb_app, H, E. reflexivity.
  - subst c. reflexivity.
  - subst c. reflexivity.
Qed.

(* the phases in which a start element may arrive *)
Definition ready (ph : bphase) : bool :=
  match ph with BP0 | BPStart true | BPNext | BPAfter _ => true | _ => false end.

(* the members read so far, counting a single character that is still waiting to see whether a '-' follows *)
Definition flush (ph : bphase) (acc : list (N * N)) : list (N * N) :=
  match ph with BPAfter c => acc ++ [(c, c)] | _ => acc end.

Definition pbr (stk : list frame) (f : frame) (neg : bool) (acc : list (N * N)) (ph : bphase) : pstate :=
  mkP stk f (MBr (mkB neg acc ph)).

Lemma class_ok_ne : forall c, class_ok c = true ->
  (c =? ch_rbr) = false /\ (c =? ch_lbr) = false /\ (c =? ch_minus) = false /\ (c =? ch_hat) = false.
Proof.
  intros c H. unfold class_ok in H. apply negb_true_iff in H. unfold class_excluded in H. split_mem H.
  unfold ch_rbr, ch_lbr, ch_minus, ch_hat. auto.
Qed.

(* a single class character arriving in a ready state *)
Lemma bstep_single : forall c stk f neg acc ph,
  class_ok c = true -> ready ph = true -> (ph = BP0 -> neg = false) ->
  psteps [c] (pbr stk f neg acc ph) = SOk (pbr stk f neg (flush ph acc) (BPAfter c)).
Proof.
  intros c stk f neg acc ph Hc Hr Hn.
  destruct (class_ok_ne c Hc) as (N1 & N2 & N3 & N4).
  cbn [psteps]. unfold pstep, pbr. cbn [p_mode].
  (* in each of the four ready phases the step unfolds to tests on c that class_ok_ne decides *)
  destruct ph as [|[|]| | |c0|c0|c0|]; try discriminate Hr; try rewrite (Hn eq_refl);
    unfold bstep, b_after, b_next, b_start; cbn [b_ph]; rewrite ?N4, ?N3, ?N1, ?N2; reflexivity.
Qed.

Definition settled (ph : bphase) : bool := match ph with BPAfter _ | BPNext => true | _ => false end.

Lemma close_bracket : forall stk f neg acc ph,
  settled ph = true ->
  psteps [ch_rbr] (pbr stk f neg acc ph) = SOk (pnorm stk (push_atom f (ESet neg (flush ph acc)))).
Proof.
  intros stk f neg acc ph Hs.
  destruct ph as [|first| | |c0|c0|c0|]; try discriminate Hs; reflexivity.
Qed.

Lemma settled_ready : forall ph, settled ph = true -> ready ph = true /\ ph <> BP0.
Proof. intros [| | | | | | |] H; try discriminate H; split; (reflexivity || discriminate). Qed.

(* reading one member from a phase that accepts a start element ends in a phase in which ']' closes the
   expression; counting a single character still pending ([flush]), the members collected grow by that one *)
Lemma read_item : forall it stk f neg acc ph,
  item_ok it = true -> ready ph = true -> (ph = BP0 -> neg = false) ->
  exists acc' ph',
    psteps (print_item it) (pbr stk f neg acc ph) = SOk (pbr stk f neg acc' ph') /\
    settled ph' = true /\ flush ph' acc' = flush ph acc ++ [it].
Proof.
  intros [lo hi] stk f neg acc ph Hi Hr Hn.
  unfold item_ok in Hi. cbn [fst snd] in Hi.
  apply andb_true_iff in Hi as [Hi Hle]. apply andb_true_iff in Hi as [Hlo Hhi].
  unfold print_item. cbn [fst snd].
  destruct (lo =? hi) eqn:E.
  - apply N.eqb_eq in E. subst hi. exists (flush ph acc), (BPAfter lo). repeat split. apply bstep_single; assumption.
  - exists (flush ph acc ++ [(lo, hi)]), BPNext. repeat split.
    change [lo; ch_minus; hi] with ([lo] ++ [ch_minus; hi]). rewrite psteps_app, bstep_single by assumption.
    destruct (class_ok_ne hi Hhi) as (N1 & N2 & _).
    cbn [psteps]. unfold pstep at 1, pbr. cbn [p_mode]. unfold bstep at 1. cbn [b_ph].
    unfold b_after. cbn [N.eqb Pos.eqb ch_minus]. cbn [b_neg b_items].
    unfold pstep, bstep. cbn [p_mode b_ph]. rewrite N1, N2. unfold b_range. rewrite Hle. reflexivity.
Qed.

Lemma read_items : forall items stk f neg acc ph,
  forallb item_ok items = true -> ready ph = true -> (ph = BP0 -> neg = false) ->
  exists acc' ph',
    psteps (print_items items) (pbr stk f neg acc ph) = SOk (pbr stk f neg acc' ph') /\
    (settled ph = true \/ items <> [] -> settled ph' = true) /\ flush ph' acc' = flush ph acc ++ items.
Proof.
  induction items as [|it t IH]; intros stk f neg acc ph Hi Hr Hn.
  - exists acc, ph. rewrite app_nil_r. repeat split. intros [H|H]; [exact H | congruence].
  - cbn [forallb] in Hi. apply andb_true_iff in Hi as [Hit Ht]. cbn [print_items].
    destruct (read_item it stk f neg acc ph Hit Hr Hn) as (acc1 & ph1 & E1 & S1 & F1).
    destruct (settled_ready ph1 S1) as [R1 B1].
    destruct (IH stk f neg acc1 ph1 Ht R1 (fun E => False_ind _ (B1 E))) as (acc2 & ph2 & E2 & S2 & F2).
    exists acc2, ph2. rewrite psteps_app, E1, E2, F2, F1, <- app_assoc. repeat split. intros _. apply S2. left; exact S1.
Qed.

Lemma parse_class : forall neg items stk f,
  items <> [] -> forallb item_ok items = true ->
  psteps (class_text neg items) (pnorm stk f) = SOk (pnorm stk (push_atom f (ESet neg items))).
Proof.
  intros neg items stk f Hne Hi. unfold class_text.
  set (ph0 := if neg then BPStart true else BP0).
  transitivity (psteps (print_items items ++ [ch_rbr]) (pbr stk f neg [] ph0)).
  { destruct neg; reflexivity. }
  destruct (read_items items stk f neg [] ph0 Hi) as (acc & ph & E & S & F);
    [destruct neg; reflexivity | destruct neg; [discriminate | reflexivity] |].
  rewrite psteps_app, E, close_bracket, F by (apply S; right; exact Hne). destruct neg; reflexivity.
Qed.

(* the expression built for each construct, in the compiler's own frame operations *)
Fixpoint fr_atom (a : satom) : ere :=
  match a with
  | SLit c => EChar c
  | SEsc c => EChar c
  | SOne => EAny
  | SRun => EStar EAny
  | SClass neg items => ESet neg items
  | SGroup al => EGroup (close_frame (fr_alt al f0))
  end
with fr_branch (b : sbranch) (f : frame) : frame :=
  match b with
  | SNil => f
  | SCons a b' => fr_branch b' (push_atom f (fr_atom a))
  end
with fr_alt (al : salt) (f : frame) : frame :=
  match al with
  | SLast b => fr_branch b f
  | SMore b _ rest => fr_alt rest (bar_frame (fr_branch b f))
  end.

Lemma parse_syntax :
  (forall a, wf_atom a = true -> forall stk f,
     psteps (rx_atom a) (pnorm stk f) = SOk (pnorm stk (push_atom f (fr_atom a)))) /\
  (forall b, wf_branch b = true -> forall stk f,
     psteps (rx_branch b) (pnorm stk f) = SOk (pnorm stk (fr_branch b f))) /\
  (forall al, wf_alt al = true -> forall stk f,
     psteps (rx_alt al) (pnorm stk f) = SOk (pnorm stk (fr_alt al f))).
Proof.
  apply spat_mutind.
  - intros c H stk f. apply parse_rx_lit; exact H.
  - intros c _ stk f. apply parse_tr_esc.
  - intros _ stk f. reflexivity.
  - intros _ stk f. reflexivity.
  - intros neg items H stk f. cbn [wf_atom] in H. apply andb_true_iff in H as [Hne Hi].
    apply parse_class; [|exact Hi]. destruct items; [discriminate Hne | discriminate].
  - intros al IH H stk f. cbn [wf_atom] in H. cbn [rx_atom fr_atom].
    transitivity (psteps (rx_alt al ++ [ch_rpar]) (pnorm (f :: stk) f0)); [reflexivity|].
    rewrite psteps_app, IH by exact H. reflexivity.
  - intros _ stk f. reflexivity.
  - intros a IHa b IHb H stk f. cbn [wf_branch] in H. apply andb_true_iff in H as [Ha Hb].
    cbn [rx_branch fr_branch]. rewrite psteps_app, IHa by exact Ha. apply IHb; exact Hb.
  - intros b IHb H stk f. apply IHb; exact H.
  - intros b IHb comma r IHr H stk f. cbn [wf_alt] in H. apply andb_true_iff in H as [Hb Hr].
    cbn [rx_alt fr_alt]. rewrite psteps_app, IHb by exact Hb.
    transitivity (psteps (rx_alt r) (pnorm stk (bar_frame (fr_branch b f)))); [reflexivity|].
    apply IHr; exact Hr.
Qed.

(* the whole regex string: SetPattern wraps the translated text in ^( )$ *)
Lemma compile_anchored : forall body F,
  (forall stk f, psteps body (pnorm stk f) = SOk (pnorm stk (F f))) ->
  ere_compile (c_sp_regex_prefix ++ body ++ c_sp_regex_suffix) = COk (anchored (close_frame (F f0))).
Proof.
  intros body F H. destruct tbl_wrap as [-> ->]. unfold ere_compile.
  transitivity (match psteps (body ++ [41; 36]) (pnorm [push_anchor f0 EBol] f0) with
                | SOk st => pfinish st | SErr => CErr | SUnsup => CUnsupported end); [reflexivity|].
  rewrite psteps_app, H. reflexivity.
Qed.

Lemma compile_pattern : forall al,
  wf_alt al = true ->
  ere_compile (c_sp_regex_prefix ++ tr_loop (print_alt al) false ++ c_sp_regex_suffix) =
  COk (anchored (close_frame (fr_alt al f0))).
Proof.
  intros al H. apply (compile_anchored _ (fr_alt al)). intros stk f.
  destruct tr_loop_syntax as (_ & _ & T), parse_syntax as (_ & _ & P).
  pose proof (T al H []) as E. cbn [tr_loop] in E. rewrite !app_nil_r in E. rewrite E. apply P; exact H.
Qed.

(* what the alternatives already closed in the frame match *)
Definition aden (f : frame) (b : bool) (s : list N) (e : bool) : Prop :=
  match f_alts f with Some a => cden a b s e | None => False end.

Lemma close_frame_spec : forall f b s e,
  cden (close_frame f) b s e <-> aden f b s e \/ cden (branch_of f) b s e.
Proof.
  intros f b s e. unfold close_frame, aden. destruct (f_alts f) as [a|].
  - apply cden_alt.
  - tauto.
Qed.

Lemma branch_push : forall f r b s e,
  cden (branch_of (push_atom f r)) b s e <->
  exists s1 s2, s = s1 ++ s2 /\ cden (branch_of f) b s1 (e && isnil s2) /\ cden r (b && isnil s1) s2 e.
Proof.
  intros f r b s e. unfold branch_of, push_atom. cbn [f_cat f_last].
  destruct (cat_opt (f_cat f) (f_last f)) as [y|]; cbn [cat_opt].
  - apply cden_cat.
  - split.
    + intros H. exists [], s. cbn [app isnil]. rewrite andb_true_r. auto.
    + intros (s1 & s2 & Es & H1 & H2). apply cden_eps in H1. subst.
      cbn [app isnil] in *. rewrite andb_true_r in H2. exact H2.
Qed.

Lemma close_branch : forall br f b s e,
  (cden (branch_of (fr_branch br f)) b s e <->
   exists s1 s2, s = s1 ++ s2 /\ cden (branch_of f) b s1 (e && isnil s2) /\ den_branch br s2) ->
  f_alts (fr_branch br f) = f_alts f -> f_cat f = None -> f_last f = None ->
  (cden (close_frame (fr_branch br f)) b s e <-> aden f b s e \/ den_branch br s).
Proof.
  intros br f b s e IH1 IH2 Hc Hl.
  rewrite close_frame_spec. unfold aden at 1. rewrite IH2. fold (aden f b s e).
  rewrite IH1. unfold branch_of. rewrite Hc, Hl. cbn [cat_opt]. split.
  - intros [H|(s1 & s2 & Es & H1 & H2)]; [left; exact H|].
    apply cden_eps in H1. subst. right. exact H2.
  - intros [H|H]; [left; exact H|]. right. exists [], s. cbn [app]. auto.
Qed.

(* Invariant for a branch: after reading [br] from the frame [f], the current alternative matches s iff s splits
   into a part matched by f's current alternative and a part [br] denotes; the closed alternatives are untouched.
   For an alternation read from a frame whose current alternative is empty: the closed frame matches what the
   closed alternatives matched, or what the alternation denotes. *)
Lemma denote_syntax :
  (forall a b s e, cden (fr_atom a) b s e <-> den_atom a s) /\
  (forall br f b s e,
     (cden (branch_of (fr_branch br f)) b s e <->
      exists s1 s2, s = s1 ++ s2 /\ cden (branch_of f) b s1 (e && isnil s2) /\ den_branch br s2) /\
     f_alts (fr_branch br f) = f_alts f) /\
  (forall al f b s e, f_cat f = None -> f_last f = None ->
     (cden (close_frame (fr_alt al f)) b s e <-> aden f b s e \/ den_alt al s)).
Proof.
  apply spat_mutind.
  - intros c b s e. apply cden_char.
  - intros c b s e. apply cden_char.
  - intros b s e. apply cden_any.
  - intros b s e. cbn [fr_atom den_atom]. split; [tauto | intros _; apply any_star_all].
  - intros neg items b s e. apply cden_set.
  - intros al IH b s e. cbn [fr_atom den_atom]. split.
    + intros H. rewrite cden_group in H. apply IH in H; [|reflexivity|reflexivity].
      destruct H as [H|H]; [contradiction H | exact H].
    + intros H. constructor. apply IH; [reflexivity|reflexivity|]. right; exact H.
  - (* SNil *)
    intros f b s e. cbn [fr_branch den_branch]. split; [|reflexivity]. split.
    + intros H. exists s, []. rewrite app_nil_r. cbn [isnil]. rewrite andb_true_r. auto.
    + intros (s1 & s2 & Es & H & E2). subst. rewrite app_nil_r. cbn [isnil] in H. rewrite andb_true_r in H. exact H.
  - (* SCons *)
    intros a IHa br IHb f b s e. cbn [fr_branch den_branch].
    destruct (IHb (push_atom f (fr_atom a)) b s e) as [IH1 IH2].
    split; [|rewrite IH2; reflexivity].
    rewrite IH1. split.
    + intros (s1 & s2 & Es & H1 & H2).
      apply branch_push in H1 as (s11 & s12 & Es1 & H11 & H12).
      exists s11, (s12 ++ s2). subst. rewrite <- app_assoc. split; [reflexivity|]. split.
      * rewrite isnil_app, (andb_comm (isnil s12)), andb_assoc. exact H11.
      * exists s12, s2. split; [reflexivity|]. split; [|exact H2]. apply IHa in H12. exact H12.
    + intros (t1 & t2 & Es & H1 & (u1 & u2 & Et & Ha & Hb)).
      exists (t1 ++ u1), u2. subst. rewrite <- app_assoc. split; [reflexivity|]. split; [|exact Hb].
      apply branch_push. exists t1, u1. split; [reflexivity|]. split.
      * rewrite isnil_app, (andb_comm (isnil u1)), andb_assoc in H1. exact H1.
      * apply IHa. exact Ha.
  - (* SLast *)
    intros br IHb f b s e Hc Hl. destruct (IHb f b s e) as [IH1 IH2]. apply close_branch; assumption.
  - (* SMore *)
    intros br IHb comma rest IHr f b s e Hc Hl. cbn [fr_alt den_alt]. destruct (IHb f b s e) as [IH1 IH2].
    rewrite IHr by reflexivity. unfold aden at 1. cbn [bar_frame f_alts].
    rewrite (close_branch br f b s e IH1 IH2 Hc Hl). tauto.
Qed.
