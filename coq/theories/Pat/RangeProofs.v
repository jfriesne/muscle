(* C15 -- RangeProofs.v : the "<a-b,c,d->" form.  For every documented range list and every subject
   that is a decimal numeral (leading zeros allowed) of a value below 2^32, Match answers what the
   documentation says.  Outside that (trailing junk, values >= 2^32) the code deviates: findings
   F25, F26, stated as ..._refuted in PatProofs.v.
   Last part: the reader of Pat/RangeParse.v only accepts the concrete syntax of a documented range list, so the
   result also reads over pattern strings (range_doc_str). *)
From Coq Require Import List NArith Bool Lia.
From Muscle Require Import Gen.Consts Pat.Ere Pat.Translate Pat.Simple Pat.TranslateProofs Pat.RangeParse.
Import ListNotations.
Local Open Scope N_scope.

Definition dval (ds : list N) (a : N) : N := fold_left dstep ds a.

Lemma digits_fuel_val : forall f n acc,
  n < 10 ^ N.of_nat f -> dval (digits_fuel f n acc) 0 = dval acc n.
Proof.
  induction f as [|f IH]; intros n acc H.
  - cbn in H. assert (n = 0) by lia. subst. reflexivity.
  - cbn [digits_fuel]. pose proof (N.div_mod n 10 ltac:(lia)) as D.
    destruct (N.eqb_spec (n / 10) 0) as [E|E].
    + unfold dval. cbn [fold_left]. f_equal. unfold dstep. rewrite E in D. lia.
    + rewrite IH by (rewrite Nat2N.inj_succ, N.pow_succ_r' in H; apply N.div_lt_upper_bound; lia).
      unfold dval. cbn [fold_left]. f_equal. unfold dstep.
      rewrite (N.add_comm 48), N.add_sub, N.mul_comm. symmetry. exact D.
Qed.

Lemma fuel_adequate : forall n, n < 10 ^ N.of_nat (S (N.to_nat (N.log2 n))).
Proof.
  intros n. rewrite Nat2N.inj_succ, N2Nat.id.
  destruct (N.eq_dec n 0) as [->|Hn]; [cbn; lia|].
  pose proof (N.log2_spec n ltac:(lia)) as [_ H].
  eapply N.lt_le_trans; [exact H|].
  apply N.pow_le_mono_l. lia.
Qed.

Lemma print_num_val : forall n, dval (print_num n) 0 = n.
Proof. intros n. unfold print_num. rewrite digits_fuel_val by apply fuel_adequate. reflexivity. Qed.

Lemma digits_fuel_digits : forall f n acc,
  forallb is_digit acc = true -> forallb is_digit (digits_fuel f n acc) = true.
Proof.
  induction f as [|f IH]; intros n acc H; cbn [digits_fuel]; [exact H|].
  assert (Hd : is_digit (48 + n mod 10) = true).
  { unfold is_digit. pose proof (N.mod_upper_bound n 10 ltac:(lia)) as Hm.
    revert Hm. generalize (n mod 10). intros m Hm.
    apply andb_true_iff. split; apply N.leb_le; lia. }
  destruct (n / 10 =? 0).
  - cbn [forallb]. rewrite Hd, H. reflexivity.
  - apply IH. cbn [forallb]. rewrite Hd, H. reflexivity.
Qed.

Lemma print_num_digits : forall n, forallb is_digit (print_num n) = true.
Proof. intros n. unfold print_num. apply digits_fuel_digits. reflexivity. Qed.

Lemma digits_fuel_nonnil : forall f n acc, acc <> [] -> digits_fuel f n acc <> [].
Proof.
  induction f as [|f IH]; intros n acc H; cbn [digits_fuel]; [exact H|].
  destruct (n / 10 =? 0); [|apply IH]; discriminate.
Qed.

Lemma print_num_head : forall n, exists d t, print_num n = d :: t /\ is_digit d = true.
Proof.
  intros n. pose proof (print_num_digits n) as Hd. destruct (print_num n) as [|d t] eqn:E.
  - exfalso. revert E. unfold print_num. cbn [digits_fuel].
    destruct (n / 10 =? 0); [|apply digits_fuel_nonnil]; discriminate.
  - cbn [forallb] in Hd. apply andb_true_iff in Hd as [Hd _]. eauto.
Qed.

(* Atoull on digits followed by a non-digit (or nothing) *)
Definition stops (rest : list N) : bool := match rest with [] => true | c :: _ => negb (is_digit c) end.

Lemma atoull_aux_digits : forall ds rest acc,
  forallb is_digit ds = true -> stops rest = true ->
  atoull_aux (ds ++ rest) acc = dval ds acc.
Proof.
  induction ds as [|d ds IH]; intros rest acc Hd Hs.
  - cbn [app dval fold_left]. destruct rest as [|c r]; [reflexivity|].
    cbn [stops] in Hs. apply negb_true_iff in Hs. cbn [atoull_aux]. rewrite Hs. reflexivity.
  - cbn [forallb] in Hd. apply andb_true_iff in Hd as [H1 H2].
    cbn [app atoull_aux]. rewrite H1. rewrite IH by assumption. reflexivity.
Qed.

Lemma dval_zeros : forall k ds, dval (repeat 48 k ++ ds) 0 = dval ds 0.
Proof.
  induction k as [|k IH]; intros ds; [reflexivity|].
  cbn [repeat app]. unfold dval. cbn [fold_left]. apply (IH ds).
Qed.

Lemma zeros_digits : forall k, forallb is_digit (repeat 48 k) = true.
Proof. induction k; cbn [repeat forallb]; [reflexivity|]. rewrite IHk. reflexivity. Qed.

(* a numeral of v, possibly with leading zeros, followed by something that is not a digit *)
Lemma atoull_numeral : forall k v rest,
  stops rest = true -> v < two64 -> atoull (repeat 48 k ++ print_num v ++ rest) = v.
Proof.
  intros k v rest Hs Hv. unfold atoull. rewrite app_assoc.
  rewrite atoull_aux_digits; [| rewrite forallb_app, zeros_digits, print_num_digits; reflexivity | exact Hs].
  rewrite (dval_zeros k (print_num v)). rewrite print_num_val. apply N.mod_small. exact Hv.
Qed.

Lemma filter_all : forall (A : Type) (f : A -> bool) l, forallb f l = true -> filter f l = l.
Proof.
  induction l as [|x l IH]; cbn [forallb filter]; intros H; [reflexivity|].
  apply andb_true_iff in H as [-> H]. rewrite IH by exact H. reflexivity.
Qed.

(* a clause is followed by nothing, or (the last one) by the closing '>' *)
Definition sfx (last : bool) : list N := if last then [ch_gt] else [].

Lemma digits_only_sfx : forall ds last, forallb is_digit ds = true -> digits_only (ds ++ sfx last) = ds.
Proof.
  intros ds last H. unfold digits_only. rewrite filter_app, (filter_all _ _ _ H). destruct last; apply app_nil_r.
Qed.

Definition nosep (sep : N) (a : list N) : bool := forallb (fun x => negb (x =? sep)) a.

Lemma split_first_none : forall sep a acc, nosep sep a = true -> split_first sep a acc = None.
Proof.
  induction a as [|x a IH]; intros acc H; [reflexivity|].
  cbn [nosep forallb] in H. apply andb_true_iff in H as [H1 H2]. apply negb_true_iff in H1.
  cbn [split_first]. rewrite H1. apply IH. exact H2.
Qed.

Lemma split_first_some : forall sep a b acc,
  nosep sep a = true -> split_first sep (a ++ sep :: b) acc = Some (rev acc ++ a, b).
Proof.
  induction a as [|x a IH]; intros b acc H.
  - cbn [app split_first]. rewrite N.eqb_refl. rewrite app_nil_r. reflexivity.
  - cbn [nosep forallb] in H. apply andb_true_iff in H as [H1 H2]. apply negb_true_iff in H1.
    cbn [app split_first]. rewrite H1. rewrite IH by exact H2. cbn [rev]. rewrite <- app_assoc. reflexivity.
Qed.

Lemma split_on_nosep : forall sep a rest cur,
  nosep sep a = true -> split_on sep (a ++ rest) cur = split_on sep rest (rev a ++ cur).
Proof.
  induction a as [|x a IH]; intros rest cur H; [reflexivity|].
  cbn [nosep forallb] in H. apply andb_true_iff in H as [H1 H2]. apply negb_true_iff in H1.
  cbn [app split_on]. rewrite H1. rewrite IH by exact H2. cbn [rev]. rewrite <- app_assoc. reflexivity.
Qed.

Lemma nosep_app : forall sep a b, nosep sep (a ++ b) = nosep sep a && nosep sep b.
Proof. intros. unfold nosep. apply forallb_app. Qed.
Lemma nosep_cons : forall sep x a, nosep sep (x :: a) = negb (x =? sep) && nosep sep a.
Proof. reflexivity. Qed.

Lemma digit_facts : forall d, is_digit d = true ->
  (d =? 45) = false /\ (d =? 44) = false /\ (d =? 62) = false /\ is_space d = false.
Proof.
  intros d H. unfold is_digit in H. apply andb_true_iff in H as [H1 H2].
  apply N.leb_le in H1. apply N.leb_le in H2. unfold is_space.
  repeat split; repeat (apply orb_false_iff; split); apply N.eqb_neq; lia.
Qed.

Lemma digits_nosep : forall sep ds,
  (sep = 45 \/ sep = 44 \/ sep = 62) -> forallb is_digit ds = true -> nosep sep ds = true.
Proof.
  intros sep ds Hs. induction ds as [|d ds IH]; intros H; [reflexivity|].
  cbn [forallb] in H. apply andb_true_iff in H as [H1 H2].
  cbn [nosep forallb]. fold (nosep sep ds). rewrite IH by exact H2. rewrite andb_true_r.
  destruct (digit_facts d H1) as (A & B & C & _).
  destruct Hs as [Hs | [Hs | Hs]]; subst sep; [rewrite A | rewrite B | rewrite C]; reflexivity.
Qed.

Definition clause_range (c : sclause) : N * N :=
  match c with
  | RSingle n => (n, n)
  | RBetween lo hi => (N.min lo hi, N.max lo hi)
  | RUpTo hi => (0, hi)
  | RFrom lo => (lo, u32_max)
  | RAll => (0, u32_max)
  end.

Lemma tbl_range_chars :
  c_sp_range_dash = 45 /\ c_sp_range_all_char = 62 /\ c_sp_range_close = 62 /\ hd 0 c_sp_range_seps = 44 /\
  c_sp_range_open = 60 /\ c_sp_rawregex_char = 96 /\ c_sp_negate_char = 126 /\ no_limit = u32_max.
Proof. vm_compute. repeat split; reflexivity. Qed.

Lemma u32_small : forall n, n <= u32_max -> u32 n = n.
Proof. intros n H. unfold u32. apply N.mod_small. unfold u32_max, two32 in *. lia. Qed.

Lemma atoull_num : forall n last, n <= u32_max -> u32 (atoull (print_num n ++ sfx last)) = n.
Proof.
  intros n last H.
  pose proof (atoull_numeral 0 n (sfx last)) as A. cbn [repeat app] in A.
  rewrite A; [apply u32_small; exact H | destruct last; reflexivity | unfold u32_max, two64 in *; lia].
Qed.

(* one side of a clause "before-after": its digits, or the default when it has none *)
Definition field (dflt : N) (ds : list N) : N :=
  let b := digits_only ds in match b with [] => dflt | _ => u32 (atoull b) end.

Lemma parse_clause_dash : forall a b, nosep 45 a = true ->
  parse_clause (a ++ ch_minus :: b) = (N.min (field 0 a) (field u32_max b), N.max (field 0 a) (field u32_max b)).
Proof.
  intros a b H. destruct tbl_range_chars as (Td & Ta & Tc & Ts & To & Tr & Tn & Tl).
  unfold parse_clause, ch_minus. rewrite Td, Tl, (split_first_some 45 a b [] H). reflexivity.
Qed.

Lemma parse_clause_dash0 : forall b,
  parse_clause (ch_minus :: b) = (0, field u32_max b).
Proof.
  intros b. rewrite (parse_clause_dash [] b eq_refl : parse_clause (ch_minus :: b) = _).
  change (field 0 []) with 0. rewrite N.min_0_l, N.max_0_l. reflexivity.
Qed.

Lemma field_num : forall dflt n last, n <= u32_max -> field dflt (print_num n ++ sfx last) = n.
Proof.
  intros dflt n last H. unfold field.
  rewrite (digits_only_sfx _ last (print_num_digits n)).
  destruct (print_num_head n) as (d & t & E & _).
  pose proof (atoull_num n false H) as A. cbn [sfx] in A. rewrite app_nil_r in A. rewrite E in *. exact A.
Qed.

Lemma field_none : forall dflt last, field dflt (sfx last) = dflt.
Proof. intros dflt [|]; reflexivity. Qed.

Lemma parse_clause_doc : forall c last,
  clause_ok c = true -> parse_clause (print_clause c ++ sfx last) = clause_range c.
Proof.
  intros c last Hok.
  pose proof (fun n => digits_nosep 45 _ (or_introl eq_refl) (print_num_digits n)) as Hd.
  pose proof (fun n H => field_num 0 n false H) as F0. cbn [sfx] in F0. setoid_rewrite app_nil_r in F0.
  destruct c as [n|lo hi|hi|lo|]; cbn [print_clause clause_ok clause_range] in *;
    rewrite ?andb_true_iff, ?N.leb_le in Hok.
  - (* N: no dash; Atoull after the leading spaces, of which a numeral has none *)
    destruct tbl_range_chars as (Td & Ta & Tc & Ts & To & Tr & Tn & Tl). unfold parse_clause. rewrite Td, Ta.
    rewrite split_first_none by (rewrite nosep_app, Hd; destruct last; reflexivity).
    destruct (print_num_head n) as (d & t & E & Hdig).
    destruct (digit_facts d Hdig) as (_ & _ & D62 & Dsp).
    pose proof (atoull_num n last Hok) as A. rewrite E in *. cbn [app] in *. rewrite D62.
    cbn [drop_spaces]. rewrite Dsp, A, N.min_id, N.max_id. reflexivity.
  - (* N-M *)
    destruct Hok as [H1 H2]. rewrite <- app_assoc. cbn [app].
    rewrite parse_clause_dash, F0, field_num by auto. reflexivity.
  - (* -M *)
    cbn [app]. rewrite parse_clause_dash0, field_num by exact Hok. reflexivity.
  - (* N- *)
    rewrite <- app_assoc. cbn [app]. rewrite parse_clause_dash, F0, field_none by auto.
    rewrite N.min_l, N.max_r by exact Hok. reflexivity.
  - (* - *)
    cbn [app]. rewrite parse_clause_dash0, field_none. reflexivity.
Qed.

Lemma clause_nosep : forall sep c, (sep = 44 \/ sep = 62) -> nosep sep (print_clause c) = true.
Proof.
  intros sep c Hs.
  assert (Hd : forall n, nosep sep (print_num n) = true).
  { intros n. apply digits_nosep; [tauto | apply print_num_digits]. }
  assert (Hm : (ch_minus =? sep) = false) by (destruct Hs; subst; reflexivity).
  destruct c; cbn [print_clause]; rewrite ?nosep_app, ?nosep_cons, ?Hd, ?Hm; reflexivity.
Qed.

Lemma clauses_nosep62 : forall cs, nosep 62 (print_clauses cs) = true.
Proof.
  induction cs as [|c t IH]; [reflexivity|].
  destruct t as [|c2 t2]; cbn [print_clauses].
  - apply clause_nosep; tauto.
  - rewrite nosep_app. rewrite clause_nosep by tauto. cbn [nosep forallb andb negb].
    change (ch_comma =? 62) with false. cbn [negb andb]. exact IH.
Qed.

Lemma parse_clauses_doc : forall cs,
  cs <> [] -> forallb clause_ok cs = true ->
  map parse_clause (split_on 44 (print_clauses cs ++ [ch_gt]) []) = map clause_range cs.
Proof.
  induction cs as [|c t IH]; intros Hne H; [congruence|].
  cbn [forallb] in H. apply andb_true_iff in H as [Hc Ht]. destruct t as [|c2 t2].
  - cbn [print_clauses]. rewrite split_on_nosep by (apply clause_nosep; tauto).
    cbn [split_on]. change (ch_gt =? 44) with false. cbv iota. cbn [rev map].
    rewrite app_nil_r, rev_involutive. f_equal. apply (parse_clause_doc c true Hc).
  - change (print_clauses (c :: c2 :: t2)) with (print_clause c ++ ch_comma :: print_clauses (c2 :: t2)).
    rewrite <- app_assoc. cbn [app]. rewrite split_on_nosep by (apply clause_nosep; tauto).
    cbn [split_on]. change (ch_comma =? 44) with true. cbv iota. cbn [map].
    rewrite app_nil_r, rev_involutive, (IH ltac:(discriminate) Ht).
    pose proof (parse_clause_doc c false Hc) as P. cbn [sfx] in P. rewrite app_nil_r in P. rewrite P. reflexivity.
Qed.

Lemma parse_ranges_doc : forall cs,
  cs <> [] -> forallb clause_ok cs = true ->
  parse_ranges (print_clauses cs ++ [ch_gt]) = map clause_range cs.
Proof.
  intros cs Hne Hok. destruct tbl_range_chars as (Td & Ta & Tc & Ts & To & Tr & Tn & Tl).
  unfold parse_ranges. rewrite Tc.
  change [ch_gt] with (62 :: @nil N).
  rewrite split_first_some by apply clauses_nosep62. cbn [rev app].
  unfold tokenize. rewrite Ts.
  destruct (print_clauses cs ++ [62]) eqn:E; [apply app_eq_nil in E as [_ E]; discriminate|].
  rewrite <- E. apply parse_clauses_doc; assumption.
Qed.

Lemma in_range_clause : forall c v, v <= u32_max -> in_range v (clause_range c) = clause_has c v.
Proof.
  intros c v Hv. unfold in_range. apply eq_true_iff_eq.
  destruct c; cbn [clause_range clause_has fst snd]; rewrite ?andb_true_iff, ?N.leb_le, ?N.eqb_eq; lia.
Qed.

Lemma existsb_ranges : forall cs v,
  v <= u32_max -> existsb (in_range v) (map clause_range cs) = existsb (fun c => clause_has c v) cs.
Proof.
  induction cs as [|c t IH]; intros v Hv; cbn [map existsb]; [reflexivity|].
  rewrite in_range_clause, IH by exact Hv. reflexivity.
Qed.

(* what Match answers for a documented range list, on EVERY subject: the leading digits are read as a number,
   reduced modulo 2^32, and looked up; trailing junk is ignored (findings F25, F26) *)
Lemma range_match : forall engine neg cs st0 s,
  cs <> [] -> forallb clause_ok cs = true ->
  matches (fst (set_pattern engine st0 (print_range_pattern neg cs) true)) s =
  xorb neg match s with
           | c :: _ => if is_digit c then existsb (in_range (u32 (atoull s))) (map clause_range cs) else false
           | [] => false
           end.
Proof.
  intros engine neg cs st0 s Hne Hok.
  destruct tbl_range_chars as (Td & Ta & Tc & Ts & To & Tr & Tn & Tl).
  assert (Es : strip_negate (print_range_pattern neg cs) = (neg, ch_lt :: print_clauses cs ++ [ch_gt])).
  { unfold print_range_pattern, strip_negate. rewrite Tn. destruct neg; reflexivity. }
  rewrite matches_set_pattern. unfold sp_ranges. rewrite Es. cbn [fst snd].
  unfold simple_body. rewrite Tr, To. change (ch_lt =? 96) with false. change (ch_lt =? 60) with true. cbv iota.
  rewrite parse_ranges_doc by assumption.
  destruct cs as [|c t]; [congruence | reflexivity].
Qed.

Theorem range_doc : forall engine neg cs st0 k v,
  cs <> [] -> forallb clause_ok cs = true -> v <= u32_max ->
  matches (fst (set_pattern engine st0 (print_range_pattern neg cs) true)) (repeat 48 k ++ print_num v) =
  xorb neg (existsb (fun c => clause_has c v) cs).
Proof.
  intros engine neg cs st0 k v Hne Hok Hv. rewrite range_match by assumption. f_equal.
  assert (Ea : u32 (atoull (repeat 48 k ++ print_num v)) = v).
  { pose proof (atoull_numeral k v [] eq_refl) as A. rewrite app_nil_r in A.
    rewrite A by (unfold u32_max, two64 in *; lia). apply u32_small; exact Hv. }
  rewrite Ea, existsb_ranges by exact Hv.
  destruct k as [|k]; cbn [repeat app]; [|reflexivity].
  destruct (print_num_head v) as (d & t & E & Hd). rewrite E, Hd. reflexivity.
Qed.

Lemma list_eqb_eq : forall a b, list_eqb a b = true -> a = b.
Proof.
  induction a as [|x a IH]; intros [|y b] H; try discriminate; [reflexivity|].
  cbn [list_eqb] in H. apply andb_true_iff in H as [H1 H2]. apply N.eqb_eq in H1. subst. f_equal. apply IH; exact H2.
Qed.

Lemma read_num_sound : forall ds n, read_num ds = Some n -> ds = print_num n.
Proof.
  intros ds n H. unfold read_num in H.
  destruct (forallb is_digit ds && list_eqb (print_num (fold_left dstep ds 0)) ds) eqn:E; [|discriminate H].
  inversion H; subst. apply andb_true_iff in E as [_ E]. symmetry. apply list_eqb_eq; exact E.
Qed.

Lemma split_first_sound : forall sep s acc a b,
  split_first sep s acc = Some (a, b) -> rev acc ++ s = a ++ sep :: b.
Proof.
  induction s as [|c s IH]; intros acc a b H; [discriminate H|].
  cbn [split_first] in H. destruct (c =? sep) eqn:E.
  - apply N.eqb_eq in E. subst c. inversion H; subst. reflexivity.
  - apply IH in H. cbn [rev] in H. rewrite <- app_assoc in H. exact H.
Qed.

Lemma read_clause_sound : forall s c, read_clause s = Some c -> s = print_clause c.
Proof.
  intros s c H. unfold read_clause in H.
  destruct (split_first ch_minus s []) as [[a b]|] eqn:E.
  - apply split_first_sound in E. cbn [rev app] in E. subst s.
    destruct a as [|a0 a'], b as [|b0 b'].
    + inversion H; subst. reflexivity.
    + destruct (read_num (b0 :: b')) eqn:Eb; [|discriminate H]. inversion H; subst.
      apply read_num_sound in Eb. rewrite Eb. reflexivity.
    + destruct (read_num (a0 :: a')) eqn:Ea; [|discriminate H]. inversion H; subst.
      apply read_num_sound in Ea. rewrite Ea. reflexivity.
    + destruct (read_num (a0 :: a')) eqn:Ea; [|discriminate H].
      destruct (read_num (b0 :: b')) eqn:Eb; [|discriminate H]. inversion H; subst.
      apply read_num_sound in Ea. apply read_num_sound in Eb. rewrite Ea, Eb. reflexivity.
  - destruct (read_num s) eqn:En; [|discriminate H]. inversion H; subst. apply read_num_sound in En. exact En.
Qed.

Fixpoint intercalate (sep : N) (toks : list (list N)) : list N :=
  match toks with
  | [] => []
  | [t] => t
  | t :: r => t ++ sep :: intercalate sep r
  end.

Lemma split_on_nonnil : forall sep s cur, split_on sep s cur <> [].
Proof.
  induction s as [|c s IH]; intros cur; cbn [split_on]; [discriminate|].
  destruct (c =? sep); [discriminate | apply IH].
Qed.

Lemma split_on_join : forall sep s cur, intercalate sep (split_on sep s cur) = rev cur ++ s.
Proof.
  induction s as [|c s IH]; intros cur; cbn [split_on].
  - cbn [intercalate]. rewrite app_nil_r. reflexivity.
  - destruct (c =? sep) eqn:E.
    + apply N.eqb_eq in E. subst c.
      pose proof (split_on_nonnil sep s []) as Hn.
      destruct (split_on sep s []) as [|t r] eqn:Es; [congruence|].
      change (intercalate sep (rev cur :: t :: r)) with (rev cur ++ sep :: intercalate sep (t :: r)).
      rewrite <- Es, IH. reflexivity.
    + rewrite IH. cbn [rev]. rewrite <- app_assoc. reflexivity.
Qed.

Lemma print_clauses_join : forall cs, print_clauses cs = intercalate ch_comma (map print_clause cs).
Proof.
  induction cs as [|c cs IH]; [reflexivity|]. destruct cs as [|c2 t]; [reflexivity|].
  change (print_clauses (c :: c2 :: t)) with (print_clause c ++ ch_comma :: print_clauses (c2 :: t)).
  rewrite IH. reflexivity.
Qed.

Lemma read_clauses_sound : forall ts cs, read_clauses ts = Some cs -> ts = map print_clause cs.
Proof.
  induction ts as [|t r IH]; intros cs H; cbn [read_clauses] in H; [inversion H; reflexivity|].
  destruct (read_clause t) as [c|] eqn:Ec; [|discriminate H].
  destruct (read_clauses r) as [cs'|] eqn:Er; [|discriminate H]. inversion H; subst.
  cbn [map]. rewrite <- (read_clause_sound _ _ Ec), <- (IH _ eq_refl). reflexivity.
Qed.

Lemma read_unsigned_sound : forall q cs,
  read_unsigned q = Some cs ->
  q = ch_lt :: print_clauses cs ++ [ch_gt] /\ cs <> [] /\ forallb clause_ok cs = true.
Proof.
  intros q cs Hq. unfold read_unsigned in Hq. destruct q as [|c t]; [discriminate Hq|].
  destruct (c =? ch_lt) eqn:E1; [|discriminate Hq]. apply N.eqb_eq in E1. subst c.
  destruct (rev t) as [|g rbody] eqn:Er; [discriminate Hq|].
  destruct (g =? ch_gt) eqn:E2; [|discriminate Hq]. apply N.eqb_eq in E2. subst g.
  unfold read_body in Hq.
  destruct (read_clauses (split_on ch_comma (rev rbody) [])) as [cs1|] eqn:Ec; [|discriminate Hq].
  destruct (forallb clause_ok cs1) eqn:Eo; [|discriminate Hq]. inversion Hq; subst cs1.
  apply read_clauses_sound in Ec. pose proof (split_on_join ch_comma (rev rbody) []) as J.
  rewrite Ec, <- print_clauses_join in J. cbn [rev app] in J.
  split; [rewrite J, <- (rev_involutive t), Er; reflexivity|]. split; [|exact Eo].
  intros ->. exact (split_on_nonnil _ _ _ Ec).
Qed.

Theorem read_ranges_sound : forall p neg cs,
  read_ranges p = Some (neg, cs) ->
  p = print_range_pattern neg cs /\ cs <> [] /\ forallb clause_ok cs = true.
Proof.
  intros p neg cs H. unfold read_ranges in H. destruct p as [|c t]; [discriminate H|].
  destruct (c =? ch_tilde) eqn:Et.
  - apply N.eqb_eq in Et. subst c.
    destruct (read_unsigned t) as [cs0|] eqn:E; [|discriminate H]. inversion H; subst.
    apply read_unsigned_sound in E as (H1 & H2 & H3). split; [|split; assumption].
    unfold print_range_pattern. cbn [app]. rewrite H1. reflexivity.
  - destruct (read_unsigned (c :: t)) as [cs0|] eqn:E; [|discriminate H]. inversion H; subst.
    apply read_unsigned_sound in E as (H1 & H2 & H3). split; [|split; assumption].
    unfold print_range_pattern. cbn [app]. exact H1.
Qed.

Theorem range_doc_str : forall engine p neg cs st0 k v,
  read_ranges p = Some (neg, cs) -> v <= u32_max ->
  matches (fst (set_pattern engine st0 p true)) (repeat 48 k ++ print_num v) =
  xorb neg (existsb (fun c => clause_has c v) cs).
Proof.
  intros engine p neg cs st0 k v H Hv. apply read_ranges_sound in H as (Hp & Hne & Hok). subst p.
  apply range_doc; assumption.
Qed.

