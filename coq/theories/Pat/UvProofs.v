(* C15 -- UvProofs.v : patterns made of literal characters, escapes and commas.  If
   CanWildcardStringMatchMultipleValues finds no wildcard character other than commas, the compiled regex is an
   alternation of literal chains and the pattern matches exactly its comma-separated values, escapes removed
   (IsPatternListOfUniqueValues); with no comma either there is one value, RemoveEscapeChars of the pattern
   (IsPatternUnique, the law the traversal's hash lookup relies on), and EscapeRegexTokens(s) is such a pattern for s. *)
From Coq Require Import List NArith Bool.
From Muscle Require Import Gen.Consts Pat.Ere Pat.EreProofs Pat.Translate Pat.Simple Pat.TranslateProofs.
Import ListNotations.
Local Open Scope N_scope.

Lemma tbl_cw_chars : c_cw_ignored_char = 45 /\ c_cw_comma_char = 44 /\ c_cw_rawregex_char = 96.
Proof. vm_compute. repeat split; reflexivity. Qed.
Lemma tbl_une_keeps : c_une_keeps_trailing = 1.
Proof. vm_compute. reflexivity. Qed.
(* every character that cannot be written bare is a token for IsRegexToken *)
Lemma tbl_lit_excluded_tokens : forallb (fun k => mem k c_regex_tokens_always) lit_excluded = true.
Proof. vm_compute. reflexivity. Qed.

Lemma nontoken_lit_ok : forall c first, is_regex_token c first = false -> lit_ok c = true.
Proof.
  intros c first H. unfold is_regex_token in H. apply orb_false_iff in H as [H _].
  unfold lit_ok. change (existsb (N.eqb c) lit_excluded) with (mem c lit_excluded).
  rewrite (mem_subset_false lit_excluded c_regex_tokens_always c tbl_lit_excluded_tokens H).
  reflexivity.
Qed.

(* the backtick that selects the raw-regex form is a first-position token *)
Lemma nontoken_not_backtick : forall c, is_regex_token c true = false -> (c =? c_cw_rawregex_char) = false.
Proof.
  intros c H. destruct (c =? c_cw_rawregex_char) eqn:E; [|reflexivity].
  apply N.eqb_eq in E. subst c. discriminate H.
Qed.

Lemma lit_not_comma : forall c, lit_ok c = true -> (c =? ch_comma) = false.
Proof. intros c H. destruct (c =? ch_comma) eqn:E; [apply N.eqb_eq in E; subst c; discriminate H | reflexivity]. Qed.

(* one-step unfoldings of the three loops that walk a pattern with an escape flag *)
Lemma tr_cons_esc : forall c t, tr_loop (c :: t) true = tr_esc c ++ tr_loop t false.
Proof. reflexivity. Qed.
Lemma une_cons_esc : forall c t, unescape_aux (c :: t) true = c :: unescape_aux t false.
Proof. intros. cbn [unescape_aux]. destruct (c =? ch_bsl); reflexivity. Qed.
Lemma cw_cons_esc : forall c t first saw, cw_loop (c :: t) first true saw = cw_loop t false false saw.
Proof. intros. cbn [cw_loop]. destruct (c =? ch_bsl), (c =? c_cw_ignored_char); reflexivity. Qed.

Lemma tr_cons_bsl : forall t, tr_loop (ch_bsl :: t) false = tr_loop t true.
Proof. intros. cbn [tr_loop]. unfold ch_bsl at 1. rewrite action_bsl, tbl_emit. reflexivity. Qed.
Lemma une_cons_bsl : forall t, unescape_aux (ch_bsl :: t) false = unescape_aux t true.
Proof. intros. reflexivity. Qed.
Lemma cw_cons_bsl : forall t first saw, cw_loop (ch_bsl :: t) first false saw = cw_loop t false true saw.
Proof. intros. reflexivity. Qed.

Lemma une_cons_other : forall c t, (c =? ch_bsl) = false -> unescape_aux (c :: t) false = c :: unescape_aux t false.
Proof. intros c t H. cbn [unescape_aux]. rewrite H. reflexivity. Qed.
Lemma cw_cons_other : forall c t first saw, (c =? ch_bsl) = false ->
  cw_loop (c :: t) first false saw =
  if negb (c =? 45) && is_regex_token c first
  then (if c =? 44 then cw_loop t false false true else (true, false))
  else cw_loop t false false saw.
Proof.
  intros c t first saw H. destruct tbl_cw_chars as (Ti & Tc & _).
  cbn [cw_loop]. rewrite H, Ti, Tc. cbn [andb negb]. rewrite andb_true_r. reflexivity.
Qed.

(* CanWildcardStringMatchMultipleValues on an ordinary character: it stops with "yes, and not only commas",
   or the character is a comma, or it is one the documented grammar lets stand for itself *)
Lemma cw_step : forall c t first, (c =? ch_bsl) = false ->
  (forall saw, cw_loop (c :: t) first false saw = (true, false)) \/
  (c = ch_comma /\ forall saw, cw_loop (c :: t) first false saw = cw_loop t false false true) \/
  (lit_ok c = true /\ forall saw, cw_loop (c :: t) first false saw = cw_loop t false false saw).
Proof.
  intros c t first Eb. pose proof (fun saw => cw_cons_other c t first saw Eb) as E.
  destruct (c =? 45) eqn:E45.
  - right; right. apply N.eqb_eq in E45. subst c. split; [reflexivity | exact E].
  - destruct (is_regex_token c first) eqn:Et.
    + destruct (c =? 44) eqn:E44; [|left; exact E]. apply N.eqb_eq in E44. right; left. split; assumption.
    + right; right. split; [eapply nontoken_lit_ok; exact Et | exact E].
Qed.

(* a pattern for which it does not answer "yes, and not only commas" at once starts with none of ~ ` < *)
Lemma cm_head_ok : forall p,
  fst (can_match_multiple p) = false \/ snd (can_match_multiple p) = true -> head_ok p = true.
Proof.
  intros [|c t] H; [reflexivity|]. destruct (head_ok (c :: t)) eqn:E; [reflexivity|]. exfalso.
  cbn [head_ok] in E. apply negb_false_iff in E. rewrite !orb_true_iff, !N.eqb_eq in E.
  destruct E as [[-> | ->] | ->]; destruct H as [H|H]; discriminate H.
Qed.

Lemma cw_fst : forall p first esc saw,
  saw || snd (cw_loop p first esc saw) = true -> fst (cw_loop p first esc saw) = true.
Proof.
  induction p as [|c t IH]; intros first esc saw H; [destruct saw; exact H|].
  cbn [cw_loop] in *.
  destruct (negb ((c =? ch_bsl) && negb esc) && negb (c =? c_cw_ignored_char) && negb esc && is_regex_token c first).
  - destruct (c =? c_cw_comma_char); [apply IH | ]; reflexivity.
  - apply IH; exact H.
Qed.

Lemma cm_loop : forall p,
  fst (can_match_multiple p) = false \/ snd (can_match_multiple p) = true ->
  can_match_multiple p = cw_loop p true false false.
Proof.
  intros [|c t] H; [reflexivity|]. unfold can_match_multiple in *.
  destruct (c =? c_cw_rawregex_char); [destruct H; discriminate | reflexivity].
Qed.

(* the values of a list pattern: split at unescaped commas, escapes removed (a trailing lone
   backslash stands for itself, as in the compiled regex) *)
Fixpoint uv_segs (p : list N) (esc : bool) (cur : list N) : list (list N) :=
  match p with
  | [] => [if esc then cur ++ [ch_bsl] else cur]
  | c :: t =>
      if esc then uv_segs t false (cur ++ [c])
      else if c =? ch_bsl then uv_segs t true cur
      else if c =? ch_comma then cur :: uv_segs t false []
      else uv_segs t false (cur ++ [c])
  end.

(* the non-empty ones: what a client looks up (StorageReflectSession's traversal skips empty values) *)
Definition uv_values (p : list N) : list (list N) := filter (fun v => negb (is_nil v)) (uv_segs p false []).

(* the frame the compiler reaches *)
Fixpoint uv_frame (p : list N) (esc : bool) (f : frame) : frame :=
  match p with
  | [] => if esc then push_atom f (EChar ch_bsl) else f
  | c :: t =>
      if esc then uv_frame t false (push_atom f (EChar c))
      else if c =? ch_bsl then uv_frame t true f
      else if c =? ch_comma then uv_frame t false (bar_frame f)
      else uv_frame t false (push_atom f (EChar c))
  end.

(* [snd .. = true]: no wildcard character other than commas, the loop never takes its early return *)
Lemma parse_uv : forall p first esc saw,
  snd (cw_loop p first esc saw) = true ->
  forall stk f, psteps (tr_loop p esc) (pnorm stk f) = SOk (pnorm stk (uv_frame p esc f)).
Proof.
  induction p as [|c t IH]; intros first esc saw H stk f.
  - cbn [tr_loop uv_frame]. rewrite tbl_trailing. destruct esc; [|reflexivity].
    apply (parse_esc 92). reflexivity.
  - destruct esc.
    + rewrite cw_cons_esc in H. rewrite tr_cons_esc, psteps_app, parse_tr_esc. apply (IH false false _ H).
    + destruct (c =? ch_bsl) eqn:Eb.
      * apply N.eqb_eq in Eb. subst c. rewrite cw_cons_bsl in H. rewrite tr_cons_bsl. apply (IH false true _ H).
      * cbn [uv_frame]. rewrite Eb.
        destruct (cw_step c t first Eb) as [E|[[-> E]|[Hl E]]]; rewrite E in H; [discriminate H | |].
        -- (* a comma becomes a bar *)
           cbn [tr_loop]. unfold ch_comma at 1. rewrite action_comma.
           transitivity (psteps (tr_loop t false) (pnorm stk (bar_frame f))); [reflexivity|].
           apply (IH false false _ H).
        -- (* an ordinary character *)
           rewrite (lit_not_comma c Hl), (tr_loop_lit c _ Hl).
           rewrite psteps_app, parse_rx_lit by exact Hl. apply (IH false false _ H).
Qed.

Lemma compile_uv : forall p saw,
  snd (cw_loop p true false saw) = true ->
  ere_compile (c_sp_regex_prefix ++ tr_loop p false ++ c_sp_regex_suffix) =
  COk (anchored (close_frame (uv_frame p false f0))).
Proof. intros p saw H. apply (compile_anchored _ (uv_frame p false)). apply (parse_uv p true false saw H). Qed.

(* a chain of literals is the branch of escaped characters, as the compiler sees it *)
Fixpoint lits (l : list N) : sbranch := match l with [] => SNil | c :: t => SCons (SEsc c) (lits t) end.
Definition push_lits (f : frame) (l : list N) : frame := fr_branch (lits l) f.

Lemma push_lits_snoc : forall l g c, push_atom (push_lits g l) (EChar c) = push_lits g (l ++ [c]).
Proof. induction l as [|d l IH]; intros g c; [reflexivity | apply (IH (push_atom g (EChar d)))]. Qed.

Lemma den_lits : forall l s, den_branch (lits l) s <-> s = l.
Proof.
  induction l as [|c l IH]; intros s; cbn [lits den_branch den_atom]; [reflexivity|]. split.
  - intros (s1 & s2 & -> & -> & H). apply IH in H. subst. reflexivity.
  - intros ->. exists [c], l. repeat split. apply IH. reflexivity.
Qed.

Definition fresh (g : frame) : Prop := f_cat g = None /\ f_last g = None.

Lemma close_lits : forall g l b s e,
  fresh g -> (cden (close_frame (push_lits g l)) b s e <-> aden g b s e \/ s = l).
Proof.
  intros g l b s e [Hc Hl]. destruct denote_syntax as (_ & D & _). destruct (D (lits l) g b s e) as [I1 I2].
  unfold push_lits. rewrite (close_branch _ _ _ _ _ I1 I2 Hc Hl), den_lits. reflexivity.
Qed.

Lemma uv_frame_spec : forall p esc g cur b s e,
  fresh g ->
  (cden (close_frame (uv_frame p esc (push_lits g cur))) b s e <-> aden g b s e \/ In s (uv_segs p esc cur)).
Proof.
  induction p as [|c t IH]; intros esc g cur b s e Hg.
  - cbn [uv_frame uv_segs]. destruct esc.
    + rewrite push_lits_snoc. rewrite close_lits by exact Hg. cbn [In]. intuition congruence.
    + rewrite close_lits by exact Hg. cbn [In]. intuition congruence.
  - cbn [uv_frame uv_segs]. destruct esc.
    + rewrite push_lits_snoc. apply IH; exact Hg.
    + destruct (c =? ch_bsl); [apply IH; exact Hg|].
      destruct (c =? ch_comma).
      * change (bar_frame (push_lits g cur)) with (push_lits (bar_frame (push_lits g cur)) []).
        rewrite IH by (split; reflexivity).
        unfold aden at 1. cbn [bar_frame f_alts]. rewrite close_lits by exact Hg.
        cbn [In]. intuition congruence.
      * rewrite push_lits_snoc. apply IH; exact Hg.
Qed.

Lemma uv_exact : forall p s,
  cden (close_frame (uv_frame p false f0)) true s true <-> In s (uv_segs p false []).
Proof.
  intros p s. change f0 with (push_lits f0 []). rewrite uv_frame_spec by (split; reflexivity).
  unfold aden. cbn [f_alts f0]. tauto.
Qed.

(* a pattern without wildcard characters is a list of one value, RemoveEscapeChars of the pattern *)
Lemma uv_single : forall p first esc cur,
  fst (cw_loop p first esc false) = false ->
  snd (cw_loop p first esc true) = true /\ uv_segs p esc cur = [cur ++ unescape_aux p esc].
Proof.
  induction p as [|c t IH]; intros first esc cur H.
  - cbn [uv_segs unescape_aux]. rewrite tbl_une_keeps. destruct esc; [|rewrite app_nil_r]; split; reflexivity.
  - destruct esc.
    + rewrite cw_cons_esc in *. rewrite une_cons_esc. cbn [uv_segs].
      destruct (IH false false (cur ++ [c]) H) as [I1 I2]. rewrite I2, <- app_assoc. split; [exact I1 | reflexivity].
    + destruct (c =? ch_bsl) eqn:Eb.
      * apply N.eqb_eq in Eb. subst c. rewrite cw_cons_bsl in *. rewrite une_cons_bsl. apply (IH false true cur H).
      * destruct (cw_step c t first Eb) as [E|[[-> E]|[Hl E]]]; rewrite E in H; rewrite E.
        -- discriminate H.
        -- rewrite (cw_fst t false false true eq_refl) in H. discriminate H.
        -- rewrite (une_cons_other c t Eb). cbn [uv_segs]. rewrite Eb, (lit_not_comma c Hl).
           destruct (IH false false (cur ++ [c]) H) as [I1 I2]. rewrite I2, <- app_assoc. split; [exact I1 | reflexivity].
Qed.

(* a backslash is always a token *)
Lemma nontoken_not_bsl : forall c first, is_regex_token c first = false -> (c =? ch_bsl) = false.
Proof.
  intros c first H. destruct (c =? ch_bsl) eqn:E; [|reflexivity].
  apply N.eqb_eq in E. subst c. destruct first; discriminate H.
Qed.

Lemma unescape_escape_aux : forall s first, unescape_aux (escape_aux s first) false = s.
Proof.
  induction s as [|c t IH]; intros first; cbn [escape_aux]; [reflexivity|].
  destruct (is_regex_token c first) eqn:Et; cbn [app].
  - rewrite une_cons_bsl, une_cons_esc, IH. reflexivity.
  - rewrite (une_cons_other c _ (nontoken_not_bsl c first Et)), IH. reflexivity.
Qed.

Lemma unescape_escape : forall s, unescape (escape s) = s.
Proof. intros s. apply unescape_escape_aux. Qed.

(* an escaped string holds no unescaped wildcard character *)
Lemma cw_escape_aux : forall s first, cw_loop (escape_aux s first) first false false = (false, false).
Proof.
  induction s as [|c t IH]; intros first; cbn [escape_aux]; [reflexivity|].
  destruct (is_regex_token c first) eqn:Et; cbn [app].
  - rewrite cw_cons_bsl, cw_cons_esc. apply IH.
  - rewrite (cw_cons_other c _ first false (nontoken_not_bsl c first Et)), Et, andb_false_r. apply IH.
Qed.

Lemma escape_head : forall s, match escape s with c :: _ => (c =? c_cw_rawregex_char) = false | [] => True end.
Proof.
  intros [|c t]; [exact I|]. unfold escape. cbn [escape_aux].
  destruct (is_regex_token c true) eqn:Et; cbn [app]; [reflexivity | apply nontoken_not_backtick; exact Et].
Qed.

Lemma cw_escape : forall s, can_match_multiple (escape s) = (false, false).
Proof.
  intros s. unfold can_match_multiple. pose proof (escape_head s) as H.
  unfold escape in *. destruct (escape_aux s true) as [|c t] eqn:E.
  - reflexivity.
  - rewrite H. rewrite <- E. apply cw_escape_aux.
Qed.
