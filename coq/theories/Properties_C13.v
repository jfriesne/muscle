(* C13 -- an ordered child index replayed from its update log equals the server's index.
   Property theorems only: each is closed by [exact] of a lemma proved in Refl/. *)
From Coq Require Import List Arith NArith.
Import ListNotations.
From Muscle Require Import Gen.Consts Refl.Index Refl.IndexProofs Refl.IndexModel Refl.IndexModelProofs Refl.IndexRunProofs Refl.IndexLogProofs Refl.IndexWitness.

(* For every history (any number of sessions, any list of steps, each step one command or a batch of commands of
   one session: ordered inserts, reorders, plain sets, removals, subtree clones, subscriptions/unsubscriptions/
   GETDATA at any point): every index lists only existing children of its node, each at most once. *)
Theorem C13_index_inv : forall n steps p,
  let t := st_tree (run cfg_fixed n steps) in
  NoDup (index_at t p) /\ forall k, In k (index_at t p) -> has_node t (p ++ [k]) = true.
Proof. exact index_inv. Qed.
Print Assumptions C13_index_inv.

(* the same while a command is being handled (before the push that follows it) *)
Theorem C13_index_inv_mid : forall n steps s c p, s < st_n (run cfg_fixed n steps) ->
  let t := st_tree (handle cfg_fixed (run cfg_fixed n steps) s c) in
  NoDup (index_at t p) /\ forall k, In k (index_at t p) -> has_node t (p ++ [k]) = true.
Proof.
  exact (fun n steps s c p Hlt => twf_index _ p (mA_twf _ (proj1
    (handle_Mid cfg_fixed _ s c cfg_fixed_ok (run_Inv cfg_fixed n steps cfg_fixed_ok) Hlt)))).
Qed.
Print Assumptions C13_index_inv_mid.

(* ... and at every quiescent point every subscriber's replica -- obtained by replaying, from nothing, everything
   that was delivered to it for that node since it subscribed: the snapshot, then the updates -- is exactly the
   server's current index. *)
Theorem C13_replay_eq : forall n steps s p,
  let st := run cfg_fixed n steps in
  subscribed st s p = true ->
  replay (st_hist st s p) [] = index_at (st_tree st) p /\ st_mirror st s p = index_at (st_tree st) p.
Proof. exact replay_eq. Qed.
Print Assumptions C13_replay_eq.

(* ... and the stream is exact, not merely replay-equal under a forgiving client: replayed from nothing, every
   insert position lies within the replica and every remove position holds the key the op names. *)
Theorem C13_log_fits : forall n steps s p, ops_fit (st_hist (run cfg_fixed n steps) s p) [] = true.
Proof. exact log_fits. Qed.
Print Assumptions C13_log_fits.

(* what the check actually observes: the stream a step logs for a (client, node) pair -- compared, step by step, with
   the PR_RESULT_INDEXUPDATED Messages the real client receives -- fits the replica the client held before the step and
   replays it into the server's index after the step (steps without unsubscription or departure of that client) *)
Theorem C13_step_replays : forall n steps sc s p,
  let st := run cfg_fixed n steps in
  let st' := step cfg_fixed st sc in
  forallb log_cmd (snd sc) = true -> subscribed st s p = true ->
  ops_fit (pend_for (st_out st') s p) (st_mirror st s p) = true /\
  replay (pend_for (st_out st') s p) (st_mirror st s p) = index_at (st_tree st') p.
Proof. exact step_replays. Qed.
Print Assumptions C13_step_replays.

(* per command, for pairs that are subscribed afterwards (so also for a client that has just subscribed: its history
   starts with the snapshot): exactly the part of the logged output addressed to the pair entered its history *)
Theorem C13_exec_log : forall cfg s st c, Inv st -> log_cmd c = true -> log_spec st (exec cfg s st c).
Proof. exact exec_log. Qed.
Print Assumptions C13_exec_log.

Theorem C13_quiescent_clean : forall n steps,
  let st := run cfg_fixed n steps in
  st_pend st = [] /\ forall s p, subscribed st s p = false -> st_mirror st s p = [].
Proof. exact quiescent_clean. Qed.
Print Assumptions C13_quiescent_clean.

(* removing a child removes its entry: in every reachable state a name without a node is in no index, and the
   removal primitive (DataNode::RemoveChild, recursive) deletes the node and its parent's entry *)
Theorem C13_absent_child_not_indexed : forall n steps p k,
  let t := st_tree (run cfg_fixed n steps) in has_node t (p ++ [k]) = false -> ~ In k (index_at t p).
Proof. exact absent_child_not_indexed. Qed.
Print Assumptions C13_absent_child_not_indexed.

Theorem C13_remove_drops_entry : forall st v, Mid st -> has_node (st_tree st) v = true -> 2 <= length v ->
  let st' := prim_remove_node st v in
  has_node (st_tree st') v = false /\ ~ In (last_name v) (index_at (st_tree st') (parent_of v)) /\ Mid st'.
Proof. exact remove_drops_entry. Qed.
Print Assumptions C13_remove_drops_entry.

(* a session that leaves (at any point) takes its nodes, their indices and its subscriptions with it *)
Theorem C13_detach_clean : forall cfg st s, cfg_ok cfg -> Inv st -> s < st_n st -> has_node (st_tree st) [NS s] = true ->
  let st' := exec cfg s st CDetach in
  Inv st' /\ st_subs st' s = [] /\ forall p, own s p = true -> has_node (st_tree st') p = false /\ index_at (st_tree st') p = [].
Proof. exact detach_clean. Qed.
Print Assumptions C13_detach_clean.

(* quiet removal (PR_NAME_REMOVE_QUIETLY; not one of the commands of [run]): the index invariant and the flag invariant
   survive, no index changes except the parent's and those of the removed nodes, so every replica except those of the
   parent and of the removed subtree stays exact; the parent's watchers are stale until they take a snapshot (witness
   below) -- which is what the flag asks for *)
Theorem C13_quiet_frame : forall st v, Mid st ->
  let st' := remove_child_quiet st v in
  twf (st_tree st') /\ I6 st' /\
  (forall p, p <> parent_of v -> is_prefix v p = false -> index_at (st_tree st') p = index_at (st_tree st) p) /\
  (forall s p, subscribed st' s p = true -> p <> parent_of v -> is_prefix v p = false ->
     replay (pend_for (st_pend st') s p) (st_mirror st' s p) = index_at (st_tree st') p) /\
  (has_node (st_tree st) v = true ->
     ~ In (last_name v) (index_at (st_tree st') (parent_of v)) /\
     forall p, is_prefix v p = true -> has_node (st_tree st') p = false).
Proof. exact quiet_frame. Qed.
Print Assumptions C13_quiet_frame.

Theorem C13_quiet_removal_refuted :
  let st := remove_child_quiet (run cfg_fixed 2 (firstn 3 nv_steps_)) [NS 0; a_; NI 1] in
  subscribed st 1 [NS 0; a_] = true /\ st_pend st = [] /\
  index_at (st_tree st) [NS 0; a_] = [NI 2; NI 0] /\ st_mirror st 1 [NS 0; a_] = [NI 2; NI 0; NI 1].
Proof. exact quiet_removal_refuted. Qed.
Print Assumptions C13_quiet_removal_refuted.

(* the full invariant, for every configuration that has both repairs *)
Theorem C13_run_Inv : forall cfg n steps, cfg_ok cfg -> Inv (run cfg n steps).
Proof. exact run_Inv. Qed.
Print Assumptions C13_run_Inv.

(* the client-side replay of a snapshot yields the index (from nothing always; from anything when non-empty) *)
Theorem C13_snapshot_replay : forall n, replay (snapshot n) [] = index_of n.
Proof. exact (fun n => proj2 (snapshot_logs n [] (or_introl eq_refl))). Qed.
Print Assumptions C13_snapshot_replay.

Theorem C13_snapshot_replay_nonempty : forall n l, index_of n <> [] -> replay (snapshot n) l = index_of n.
Proof. exact (fun n l H => proj2 (snapshot_logs n l (or_intror H))). Qed.
Print Assumptions C13_snapshot_replay_nonempty.

(* the behaviour found in the pinned tree refutes the property (both witnesses replayed on the real server) *)
Theorem C13_reorder_ipres_refuted :
  exists steps s p, let st := run cfg_pinned 1 steps in
    subscribed st s p = true /\ st_mirror st s p <> index_at (st_tree st) p.
Proof. exact reorder_ipres_refuted. Qed.
Print Assumptions C13_reorder_ipres_refuted.

Theorem C13_clone_refuted :
  exists steps p, ~ NoDup (index_at (st_tree (run cfg_pinned 1 steps)) p).
Proof. exact clone_refuted. Qed.
Print Assumptions C13_clone_refuted.

(* delaying the push to the end of a batch lets a GETDATA snapshot overtake a pending update *)
Theorem C13_late_push_refuted :
  let st := step_late_push cfg_fixed (run cfg_fixed 1 batch_witness_prefix) batch_witness_last in
  subscribed st 0 [NS 0; a_] = true /\
  index_at (st_tree st) [NS 0; a_] = [NI 0; NI 2; NI 1] /\
  st_mirror st 0 [NS 0; a_] = [NI 0; NI 2; NI 2; NI 1].
Proof. exact late_push_refuted. Qed.
Print Assumptions C13_late_push_refuted.

(* the op codes the harness and the driver print are the translated INDEX_OP_* constants; they are pairwise distinct *)
Theorem C13_opcodes_distinct :
  c_INDEX_OP_ENTRYINSERTED <> c_INDEX_OP_ENTRYREMOVED /\ c_INDEX_OP_ENTRYINSERTED <> c_INDEX_OP_CLEARED /\
  c_INDEX_OP_ENTRYREMOVED <> c_INDEX_OP_CLEARED.
Proof. exact opcodes_distinct. Qed.
Print Assumptions C13_opcodes_distinct.

(* non-vacuity of the premises *)
Example C13_nv_replay_eq :
  let st := run cfg_fixed 2 nv_steps in
  subscribed st 1 [NS 0; a_] = true /\ index_at (st_tree st) [NS 0; a_] = [NI 2; NI 0] /\
  st_mirror st 1 [NS 0; a_] = [NI 2; NI 0] /\
  st_hist st 1 [NS 0; a_] = [OpIns 0 (NI 0); OpIns 1 (NI 1); OpIns 0 (NI 2); OpRem 1 (NI 0); OpIns 2 (NI 0); OpRem 1 (NI 1)].
Proof. exact nv_replay_eq. Qed.

Example C13_nv_remove_premises :
  let st := run cfg_fixed 2 (firstn 4 nv_steps) in
  has_node (st_tree st) [NS 0; a_; NI 1] = true /\ 2 <= length [NS 0; a_; NI 1] /\
  In (NI 1) (index_at (st_tree st) [NS 0; a_]).
Proof. exact nv_remove_premises. Qed.
