(* C11 -- Thread-to-owner Messages arrive exactly once, in order, and always wake the peer.

   Every Message the owner sends to a Thread's internal thread, and every reply sent back, is received exactly once
   and in sending order; a receiver blocked waiting for the next Message always wakes when one is queued (no lost
   wake-up), however sends and receives interleave.  Asking the internal thread to shut down and waiting for it
   always completes, and Messages queued before the thread was started are delivered once it starts.

   The statements are about the LTS of Conc/ThreadQ.v: every reachable state = every interleaving of the atomic steps
   of any number of threads running any programs over the API ([ok]: any restriction on the programs, none needed),
   for both signalling mechanisms ([m]: socket pair / wait-condition) and both ways of writing the internal thread
   ([e]: default loop / event-driven), every reaction [react] of the subclass to a Message, with sizeof(bytes) of
   WaitForNextMessageAux taken from the current sources, and StartInternalThread as repaired (first argument [false]:
   needsInitialSignal is read under the lock after the socket pair and the thread exist).  For the order the code had
   before (first argument [true]) c11_evd_lost_wakeup_refuted exhibits the lost wake-up.
   "Always wakes / completes" is proved in its safety form: an enabled step of the blocked thread, or of a thread that
   still owes it the signal, exists (DESIGN.md section 3); for the shutdown and for the Message at the head of the
   internal thread's queue also as "can complete" and as eventual completion on weakly fair executions (further down). *)
From Coq Require Import List Arith Bool NArith.
From Muscle Require Import Conc.ThreadQ Conc.ThreadQWf Conc.ThreadQWake Conc.ThreadQProofs Conc.ThreadQProgress Conc.ThreadQConsts.
Import ListNotations.

(* exactly once, in order: at every moment what was sent = what was received followed by what is still queued *)
Theorem c11_fifo_exactly_once : forall react ok m e s c, reachable_if false ABS NOLIM react ok m e s ->
  c_sent (ch (s_g s) c) = c_rcvd (ch (s_g s) c) ++ c_q (ch (s_g s) c).
Proof. exact (fifo_exactly_once ABS NOLIM). Qed.
Print Assumptions c11_fifo_exactly_once.

(* ... and over any stretch of execution: what is received during it is, in this order, what was queued at its
   beginning followed by what was appended during it *)
Theorem c11_fifo_no_overtaking : forall react ok m e s s' c,
  reachable_if false ABS NOLIM react ok m e s -> steps_if false ABS NOLIM react ok s s' ->
  exists got more,
    c_rcvd (ch (s_g s') c) = c_rcvd (ch (s_g s) c) ++ got /\
    c_sent (ch (s_g s') c) = c_sent (ch (s_g s) c) ++ more /\
    got ++ c_q (ch (s_g s') c) = c_q (ch (s_g s) c) ++ more.
Proof. exact (fifo_no_overtaking false ABS NOLIM). Qed.
Print Assumptions c11_fifo_no_overtaking.

Theorem c11_no_lost_wakeup_internal : forall react ok m e s, reachable_if false ABS NOLIM react ok m e s ->
  g_ist (s_g s) = ILive ->
  (exists w, l_pc (g_il (s_g s)) = PRecvPark CI w) \/ l_pc (g_il (s_g s)) = PIEvWait ->
  c_q (g_ci (s_g s)) <> [] ->
  readable (s_g s) CI = true \/ exists t, is_pend_i (l_pc (s_l s t)) = true.
Proof. exact (fun react => no_lost_wakeup_internal ABS NOLIM react eq_refl). Qed.
Print Assumptions c11_no_lost_wakeup_internal.

Theorem c11_no_lost_wakeup_owner : forall react ok m e s w, reachable_if false ABS NOLIM react ok m e s ->
  l_pc (s_l s 0) = PRecvPark CO w -> c_q (g_co (s_g s)) <> [] ->
  readable (s_g s) CO = true \/ (exists t, l_pc (s_l s t) = PSendSig CO true) \/
  (g_ist (s_g s) = ILive /\ l_pc (g_il (s_g s)) = PSendSig CO true).
Proof. exact (fun react ok m e s w => no_lost_wakeup_owner ABS NOLIM react eq_refl ok m e s w). Qed.
Print Assumptions c11_no_lost_wakeup_owner.

Theorem c11_internal_never_stuck : forall react ok m e s, reachable_if false ABS NOLIM react ok m e s ->
  g_ist (s_g s) = ILive -> c_q (g_ci (s_g s)) <> [] ->
  (exists x, sys_step false ABS NOLIM react s (LStep I CRun) = Some x) \/
  (exists t x, is_pend_i (l_pc (s_l s t)) = true /\ sys_step false ABS NOLIM react s (LStep (U t) CRun) = Some x).
Proof. exact (fun react => internal_never_stuck ABS NOLIM react eq_refl). Qed.
Print Assumptions c11_internal_never_stuck.

Theorem c11_owner_never_stuck : forall react ok m e s w, reachable_if false ABS NOLIM react ok m e s ->
  l_pc (s_l s 0) = PRecvPark CO w -> c_q (g_co (s_g s)) <> [] ->
  (exists x, sys_step false ABS NOLIM react s (LStep (U 0) CRun) = Some x) \/
  (exists t x, l_pc (s_l s t) = PSendSig CO true /\ sys_step false ABS NOLIM react s (LStep (U t) CRun) = Some x) \/
  (l_pc (g_il (s_g s)) = PSendSig CO true /\ exists x, sys_step false ABS NOLIM react s (LStep I CRun) = Some x).
Proof. exact (fun react ok m e s w => owner_never_stuck ABS NOLIM react eq_refl ok m e s w). Qed.
Print Assumptions c11_owner_never_stuck.

Theorem c11_shutdown_completes : forall react ok m e s, reachable_if false ABS NOLIM react ok m e s ->
  l_pc (s_l s 0) = PJoinWait -> l_k (s_l s 0) = [KDiscard] ->
  (g_ist (s_g s) = IExited /\ exists x, sys_step false ABS NOLIM react s (LStep (U 0) CRun) = Some x) \/
  (g_ist (s_g s) = ILive /\
   (In None (c_q (g_ci (s_g s))) \/ exiting (l_pc (g_il (s_g s))) = true) /\
   ((exists x, sys_step false ABS NOLIM react s (LStep I CRun) = Some x) \/
    (exists t x, is_pend_i (l_pc (s_l s t)) = true /\ sys_step false ABS NOLIM react s (LStep (U t) CRun) = Some x))).
Proof. exact (fun react => shutdown_completes ABS NOLIM react eq_refl). Qed.
Print Assumptions c11_shutdown_completes.

Theorem c11_queued_before_start_delivered : forall react ok m e s s', reachable_if false ABS NOLIM react ok m e s ->
  g_running (s_g s) = false -> steps_if false ABS NOLIM react ok s s' ->
  (exists got more,
     c_rcvd (g_ci (s_g s')) = c_rcvd (g_ci (s_g s)) ++ got /\
     got ++ c_q (g_ci (s_g s')) = c_q (g_ci (s_g s)) ++ more) /\
  (g_ist (s_g s') = ILive -> c_q (g_ci (s_g s')) <> [] ->
   (exists x, sys_step false ABS NOLIM react s' (LStep I CRun) = Some x) \/
   (exists t x, is_pend_i (l_pc (s_l s' t)) = true /\ sys_step false ABS NOLIM react s' (LStep (U t) CRun) = Some x)).
Proof. exact (fun react => queued_before_start_delivered ABS NOLIM react eq_refl). Qed.
Print Assumptions c11_queued_before_start_delivered.

(* the deadlock detector's verdict: a state in which nothing can move holds no undelivered Message for a blocked reader *)
Theorem c11_stuck_only_when_nothing_to_receive : forall react ok m e s, reachable_if false ABS NOLIM react ok m e s ->
  (forall w c, sys_step false ABS NOLIM react s (LStep w c) = None) ->
  (g_ist (s_g s) = ILive -> c_q (g_ci (s_g s)) = []) /\
  (forall w, l_pc (s_l s 0) = PRecvPark CO w -> c_q (g_co (s_g s)) = []).
Proof. exact (fun react => stuck_only_when_nothing_to_receive ABS NOLIM react eq_refl). Qed.
Print Assumptions c11_stuck_only_when_nothing_to_receive.

Theorem c11_running_iff_thread_exists : forall react ok m e s, reachable_if false ABS NOLIM react ok m e s ->
  g_running (s_g s) = negb (ist_none (g_ist (s_g s))) /\
  (g_ist (s_g s) = ILive -> g_sockets (s_g s) = true -> g_alloc (s_g s) = true /\ g_iopen (s_g s) = true).
Proof. exact (running_iff_thread_exists ABS NOLIM). Qed.
Print Assumptions c11_running_iff_thread_exists.

(* StartInternalThread in the order it was found (finding F47, since repaired in /repo): an event-driven internal thread
   loses a wake-up (witness schedule refute_labels in ThreadQProofs, replayed on the real code) *)
Theorem c11_evd_lost_wakeup_refuted : forall react,
  exists s, reachable true ABS NOLIM react true true s /\
    g_ist (s_g s) = ILive /\ l_pc (g_il (s_g s)) = PIEvWait /\ c_q (g_ci (s_g s)) = [Some 7] /\
    readable (s_g s) CI = false /\ (forall t, l_pc (s_l s t) = PIdle) /\
    (forall w c, sys_step true ABS NOLIM react s (LStep w c) = None).
Proof. exact (evd_lost_wakeup_refuted ABS NOLIM). Qed.
Print Assumptions c11_evd_lost_wakeup_refuted.

(* one WaitForNextMessageAux call absorbs at least one pending signal byte, and all of them up to sizeof(bytes):
   no select() loop that returns at once for ever (side condition on the translated constant) *)
Theorem c11_absorb_progress : forall c g, fd_ok g c = true -> 0 < c_sig (ch g c) ->
  c_sig (ch (absorb ABS c g) c) < c_sig (ch g c).
Proof. exact (fun c g => absorb_progress ABS c g (proj1 (Nat.leb_le 1 ABS) eq_refl)). Qed.
Print Assumptions c11_absorb_progress.

Theorem c11_absorb_drains : forall c g, fd_ok g c = true -> c_sig (ch g c) <= ABS -> c_sig (ch (absorb ABS c g) c) = 0.
Proof. exact (absorb_drains ABS). Qed.
Print Assumptions c11_absorb_drains.

(* non-vacuity: reachable, non-trivial states satisfying the premises *)
Example c11_ex_internal_parked : exists s, reachable_if false ABS NOLIM react0 any_label true false s /\
  g_ist (s_g s) = ILive /\ l_pc (g_il (s_g s)) = PRecvPark CI WNever /\ c_q (g_ci (s_g s)) = [Some 5] /\
  readable (s_g s) CI = false /\ l_pc (s_l s 1) = PSendSig CI true.
Proof. exact (ex_internal_parked ABS NOLIM). Qed.

Example c11_ex_internal_parked_wc : exists s, reachable_if false ABS NOLIM react0 any_label false false s /\
  g_ist (s_g s) = ILive /\ l_pc (g_il (s_g s)) = PRecvPark CI WNever /\ c_q (g_ci (s_g s)) = [Some 5] /\
  readable (s_g s) CI = false /\ l_pc (s_l s 1) = PSendSig CI true.
Proof. exact (ex_internal_parked_wc ABS NOLIM). Qed.

Example c11_ex_owner_parked : exists s, reachable_if false ABS NOLIM react0 any_label true false s /\
  l_pc (s_l s 0) = PRecvPark CO WNever /\ c_q (g_co (s_g s)) = [Some 9] /\ l_pc (s_l s 1) = PSendSig CO true.
Proof. exact (ex_owner_parked ABS NOLIM). Qed.

Example c11_ex_shutdown_waiting : exists s, reachable_if false ABS NOLIM react0 any_label true false s /\
  l_pc (s_l s 0) = PJoinWait /\ l_k (s_l s 0) = [KDiscard] /\ g_ist (s_g s) = ILive /\ c_q (g_ci (s_g s)) = [None].
Proof. exact (ex_shutdown_waiting ABS NOLIM). Qed.

Example c11_ex_shutdown_exited : exists s, reachable_if false ABS NOLIM react0 any_label true false s /\
  l_pc (s_l s 0) = PJoinWait /\ l_k (s_l s 0) = [KDiscard] /\ g_ist (s_g s) = IExited.
Proof. exact (ex_shutdown_exited ABS NOLIM). Qed.

Example c11_ex_queued_before_start : exists s, reachable_if false ABS NOLIM react0 any_label true false s /\
  g_running (s_g s) = false /\ c_q (g_ci (s_g s)) = [Some 1; Some 2] /\ c_sig (g_ci (s_g s)) = 0 /\ g_alloc (s_g s) = false.
Proof. exact (ex_queued_before_start ABS NOLIM). Qed.

Example c11_ex_evd_parked : exists s, reachable_if false ABS NOLIM react0 any_label true true s /\
  g_ist (s_g s) = ILive /\ l_pc (g_il (s_g s)) = PIEvWait /\ c_q (g_ci (s_g s)) = [Some 3] /\
  readable (s_g s) CI = false /\ l_pc (s_l s 0) = PStartSpawned.
Proof. exact (ex_evd_parked ABS NOLIM). Qed.

(* the schedule of c11_evd_lost_wakeup_refuted on the repaired order: the wake-up is not lost *)
Example c11_ex_race_repaired : exists s, reachable_if false ABS NOLIM react0 any_label true true s /\
  g_ist (s_g s) = ILive /\ l_pc (g_il (s_g s)) = PIEvWait /\ c_q (g_ci (s_g s)) = [Some 7] /\
  readable (s_g s) CI = true.
Proof. exact (ex_race_repaired ABS NOLIM). Qed.

Example c11_ex_stuck : exists s, reachable_if false ABS NOLIM react0 any_label true false s /\
  (forall w c, sys_step false ABS NOLIM react0 s (LStep w c) = None).
Proof. exact (ex_stuck ABS NOLIM). Qed.


(* ---- "can always complete" (Conc/ThreadQProgress.v): no reachable state is a trap.  [canreach P s]: some finite
   continuation from s, made of steps of the internal thread and of threads that still owe it a signal only
   ([helper]), ends in a state satisfying P; proved with a measure that each such step decreases.  Premise of these
   three: the subclass's MessageReceivedFromOwner sends replies only, no Messages to the internal thread itself (a
   thread that keeps feeding its own queue need never drain it); all the other theorems hold for any reaction,
   self-sends included. ---- *)

(* from every reachable state with a live internal thread: it can finish, or receive everything queued and block *)
Theorem c11_can_drain : forall react, (forall x, Forall (fun cm => fst cm = CO) (fst (react x))) -> forall m e s,
  reachable_if false ABS NOLIM react any_label m e s -> g_ist (s_g s) = ILive ->
  canreach ABS NOLIM react (fun s' => reachable_if false ABS NOLIM react any_label m e s' /\ drained s') s.
Proof. exact (fun react H => can_drain ABS NOLIM react eq_refl H). Qed.
Print Assumptions c11_can_drain.

(* shutdown can always run to completion: once a NULL Message is queued for (or taken by) a live thread, it can finish *)
Theorem c11_shutdown_can_complete : forall react, (forall x, Forall (fun cm => fst cm = CO) (fst (react x))) -> forall m e s,
  reachable_if false ABS NOLIM react any_label m e s -> g_ist (s_g s) = ILive -> null_seen s ->
  canreach ABS NOLIM react (fun s' => reachable_if false ABS NOLIM react any_label m e s' /\ g_ist (s_g s') = IExited) s.
Proof. exact (fun react H => shutdown_can_complete ABS NOLIM react eq_refl H). Qed.
Print Assumptions c11_shutdown_can_complete.

(* every queued Message can be received: in order, all of them unless the thread finishes first *)
Theorem c11_queued_can_be_received : forall react, (forall x, Forall (fun cm => fst cm = CO) (fst (react x))) -> forall m e s,
  reachable_if false ABS NOLIM react any_label m e s -> g_ist (s_g s) = ILive ->
  canreach ABS NOLIM react (fun s' => reachable_if false ABS NOLIM react any_label m e s' /\ exists got,
              c_rcvd (g_ci (s_g s')) = c_rcvd (g_ci (s_g s)) ++ got /\
              got ++ c_q (g_ci (s_g s')) = c_q (g_ci (s_g s)) /\
              (g_ist (s_g s') = IExited \/ c_q (g_ci (s_g s')) = [])) s.
Proof. exact (fun react H => queued_can_be_received ABS NOLIM react eq_refl H). Qed.
Print Assumptions c11_queued_can_be_received.

(* the premises of c11_shutdown_can_complete are met by c11_ex_shutdown_waiting's state (a NULL Message is queued) *)
Example c11_ex_null_seen : exists s, reachable_if false ABS NOLIM react0 any_label true false s /\
  g_ist (s_g s) = ILive /\ null_seen s.
Proof. exact (ex_null_seen ABS NOLIM). Qed.

(* the pending-notification counts of the WaitConditions stay uint32 values: IncreaseNotificationsCount saturates at the
   translated MUSCLE_NO_LIMIT (= 2^32-1, checked by conversion) and never wraps to 0, so a Notify() is never lost *)
Theorem c11_notification_counts_are_uint32 : forall react ok m e s,
  reachable_if false ABS NOLIM react ok m e s -> wcb NOLIM (s_g s).
Proof. exact (notification_counts_are_uint32 false ABS). Qed.
Print Assumptions c11_notification_counts_are_uint32.

(* ---- the owner's user-registered socket set (SOCKET_SET_READ) and the B_IO_READY return path ---- *)

(* a blocked owner is woken when its registered user socket becomes ready-for-read *)
Theorem c11_user_socket_wakes_owner : forall react s w,
  g_sockets (s_g s) = true -> l_pc (s_l s 0) = PRecvPark CO w ->
  u_reg (g_usr (s_g s)) = true -> 0 < u_bytes (g_usr (s_g s)) ->
  exists x, sys_step false ABS NOLIM react s (LStep (U 0) CRun) = Some x.
Proof. exact (user_socket_wakes_owner ABS NOLIM). Qed.
Print Assumptions c11_user_socket_wakes_owner.

(* B_IO_READY is truthful: returned only when the registered user socket is ready and the signal socket is not (a pending
   signal has precedence: the queue is polled instead), and IsOwnerThreadSocketReady() then says yes *)
Theorem c11_io_ready_is_truthful : forall react s t c s' ev,
  sys_step false ABS NOLIM react s (LStep (U t) c) = Some (s', ev) -> In (ERet RIoReady) ev ->
  uready (s_g s) = true /\ readable (s_g s) CO = false /\ u_flag (g_usr (s_g s')) = true.
Proof. exact (io_ready_is_truthful ABS NOLIM). Qed.
Print Assumptions c11_io_ready_is_truthful.

Example c11_ex_user_socket : exists s, reachable_if false ABS NOLIM react0 any_label true false s /\
  l_pc (s_l s 0) = PRecvPark CO WNever /\ uready (s_g s) = true /\ readable (s_g s) CO = false.
Proof. exact (ex_user_socket ABS NOLIM). Qed.

(* the model includes reactions that send to the internal thread itself (SendMessageToInternalThread from within
   MessageReceivedFromOwner): a reachable state in which the thread has fed its own, empty, queue *)
Example c11_ex_self_send : exists s, reachable_if false ABS NOLIM react_self any_label true false s /\
  g_ist (s_g s) = ILive /\ l_pc (g_il (s_g s)) = PSendSig CI true /\ c_q (g_ci (s_g s)) = [Some 105] /\
  c_rcvd (g_ci (s_g s)) = [Some 5].
Proof. exact (ex_self_send ABS NOLIM). Qed.

(* ---- liveness under weak fairness (Conc/ThreadQProgress.v).  An execution [r : frun] is an infinite sequence of states
   and labels (None = nobody moves) in which every labelled position is a step of the LTS; [fair r]: the internal thread's
   step, and every user thread's step, is eventually taken or disabled (weak fairness).  Premise as for the can-reach
   theorems: the subclass's reaction sends replies only. ---- *)

(* shutdown eventually completes: once a NULL Message is queued for (or taken by) the live internal thread, the thread
   eventually finishes -- whatever the other threads do in between (more sends, receives, signals, ...) *)
Theorem c11_shutdown_eventually_completes : forall react,
  (forall x, Forall (fun cm => fst cm = CO) (fst (react x))) ->
  forall m e (r : frun ABS NOLIM react),
  reachable_if false ABS NOLIM react any_label m e (f_st _ _ _ r 0) -> fair ABS NOLIM react r ->
  forall i, g_ist (s_g (f_st _ _ _ r i)) = ILive -> null_seen (f_st _ _ _ r i) ->
  exists j, i <= j /\ g_ist (s_g (f_st _ _ _ r j)) = IExited.
Proof. exact (fun react H => shutdown_eventually_completes ABS NOLIM react eq_refl H). Qed.
Print Assumptions c11_shutdown_eventually_completes.

(* a queued Message is eventually received: on every weakly fair execution the Message at the head of the internal
   thread's queue is eventually taken from it (unless the thread finishes first) -- whatever the other threads do
   meanwhile; with c11_fifo_no_overtaking this holds, in order, for every queued Message *)
Theorem c11_queued_message_eventually_received : forall react,
  (forall x, Forall (fun cm => fst cm = CO) (fst (react x))) ->
  forall m e (r : frun ABS NOLIM react),
  reachable_if false ABS NOLIM react any_label m e (f_st _ _ _ r 0) -> fair ABS NOLIM react r ->
  forall i msg0 rest, g_ist (s_g (f_st _ _ _ r i)) = ILive -> c_q (g_ci (s_g (f_st _ _ _ r i))) = msg0 :: rest ->
  exists j, i <= j /\ (g_ist (s_g (f_st _ _ _ r j)) = IExited \/
                       c_rcvd (g_ci (s_g (f_st _ _ _ r j))) = c_rcvd (g_ci (s_g (f_st _ _ _ r i))) ++ [msg0]).
Proof. exact (fun react H => queued_message_eventually_received ABS NOLIM react eq_refl H). Qed.
Print Assumptions c11_queued_message_eventually_received.

(* ---- the WaitCondition counting contract the wait-condition mode rests on: a wait entered, or pending, while the
   condition's notification count is positive returns at once and zeroes the count -- no receive stays parked while its
   count is positive (so a stale notification, left behind by a receive that found its Message without waiting, can only
   cause a spurious wake-up, never hide a later Notify()).  The real WaitAux / WaitUntilAux are checked against it by the
   controlled runs (untimed) and by the real-clock timed scenarios of the check (f=3). ---- *)
Theorem c11_no_receive_parks_while_notified : forall react s t x w,
  g_sockets (s_g s) = false -> l_pc (s_l s t) = PRecvPark x w -> (0 < c_wc (ch (s_g s) x))%N ->
  exists s', sys_step false ABS NOLIM react s (LStep (U t) CRun) = Some (s', [EWoken]) /\
             c_wc (ch (s_g s') x) = 0%N /\ l_pc (s_l s' t) = PRecvAbsorb x w.
Proof. exact (no_receive_parks_while_notified false ABS NOLIM). Qed.
Print Assumptions c11_no_receive_parks_while_notified.
