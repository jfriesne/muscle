(* Msg/MsgSizeProofs.v -- the translated size tables agree; the advertised flattened size is the number of
   bytes written (the size-then-write contract of DataFlattener), at every nesting level. *)
From Coq Require Import List NArith Bool Strings.Byte Lia.
From Muscle Require Import Gen.Consts Msg.MsgDefs Msg.MsgModel Msg.MsgBytesProofs.
Import ListNotations.
Local Open Scope N_scope.

(* ------------------------------------------------------------------ side conditions on translated constants *)

Lemma sizeof_u32 : c_SIZEOF_uint32 = 4.
Proof. reflexivity. Qed.

(* the three size tables of Message.cpp (GetFlattenedSizeForFixedSizeType, GetElementSize via
   SingleFlattenedSize, sizeof(DataType)/FlatItemSize of the array classes) agree on every fixed-size
   flattenable type and are positive; re-checked by computation whenever a table entry changes *)
Lemma size_tables_ok (ft : ftype) :
  ft_fixed ft = true ->
  wire_size ft = cpp_size ft /\ arr_unit ft = cpp_size ft /\ 0 < cpp_size ft.
Proof. destruct ft; intro H; try discriminate H; vm_compute; repeat split; reflexivity. Qed.

Lemma wire_size_var (ft : ftype) : ft_fixed ft = false -> ft_flattenable ft = true -> wire_size ft = 0.
Proof. destruct ft; intros H1 H2; try discriminate; reflexivity. Qed.

Lemma cpp_size_bool : cpp_size TBool = 1.
Proof. reflexivity. Qed.

Lemma proto_version_ok :
  (c_OLDEST_SUPPORTED_PROTOCOL_VERSION <=? c_CURRENT_PROTOCOL_VERSION) = true /\ c_CURRENT_PROTOCOL_VERSION < two32.
Proof. split; reflexivity. Qed.

Lemma size_single_fixed (ft : ftype) (i : item) : ft_fixed ft = true -> size_single ft i = cpp_size ft.
Proof. destruct ft; intro H; try discriminate H; destruct i; reflexivity. Qed.

Lemma ft_cases (ft : ftype) :
  ft_flattenable ft = true -> ft_fixed ft = true \/ ft = TMessage \/ ft = TString \/ ft = TRaw.
Proof. destruct ft; intro H; try discriminate H; auto. Qed.

Lemma ftype_eq_dec (a b : ftype) : {a = b} + {a <> b}.
Proof. decide equality. Qed.

(* both writers emit a fixed-size item unchanged (a bool too: its well-formed values are the bytes 0 and 1) *)
Lemma wf_fix_item (ft : ftype) (i : item) :
  ft_fixed ft = true -> wf_item ft i ->
  exists bs, i = IFix bs /\ len bs = cpp_size ft /\ flat_elem ft i = bs /\ flat_single ft i = bs.
Proof.
  intros Hx Hw. destruct ft; try discriminate Hx; destruct i; cbn [wf_item] in Hw; try contradiction; exists bs.
  1: destruct Hw as [-> | ->].
  all: repeat split; assumption || reflexivity.
Qed.

(* ------------------------------------------------------------------ flatten_length *)

Definition elem_len (ft : ftype) (i : item) : N :=
  if ft_fixed ft then cpp_size ft
  else match ft with TString => 4 + size_elem ft i | _ => size_elem ft i end.

Definition items_flat_len (ft : ftype) (l : items) : N :=
  if ft_fixed ft then items_len l * cpp_size ft
  else match ft with TString => 4 * items_len l + size_items ft l | _ => size_items ft l end.

Ltac szsimp := rewrite ?len_app, ?len_le32, ?len_cons, ?len_nil, ?sizeof_u32 in *.

Lemma flatten_length_all :
  (forall i ft, ft_flattenable ft = true -> wf_item ft i ->
       len (flat_single ft i) = size_single ft i /\ len (flat_elem ft i) = elem_len ft i) /\
  (forall l ft, ft_flattenable ft = true -> wf_items ft l -> len (flat_items ft l) = items_flat_len ft l) /\
  (forall r ft, ft_flattenable ft = true -> wf_repr ft r -> len (flat_repr ft r) = size_repr ft r) /\
  (forall fs, wf_fields fs -> len (flat_fields fs) = size_fields fs) /\
  (forall m, wf_msg m -> len (flat_msg m) = size_msg m).
Proof.
  apply msg_mutind.
  - (* IFix *)
    intros bs ft Hf Hwf. destruct (ft_cases ft Hf) as [Hx | [-> | [-> | ->]]]; try contradiction.
    destruct (wf_fix_item ft _ Hx Hwf) as (bs' & _ & Hl & -> & ->).
    unfold elem_len. rewrite size_single_fixed, Hx by exact Hx. auto.
  - (* IStr *)
    intros s ft Hf Hwf. destruct ft; cbn in Hwf; try contradiction; try discriminate Hf.
    unfold elem_len. cbn [flat_single size_single flat_elem ft_fixed size_elem]. szsimp. unfold str_flat_size. split; lia.
  - (* IRaw *)
    intros b ft Hf Hwf. destruct ft; cbn in Hwf; try contradiction; try discriminate Hf.
    change (size_single TRaw (IRaw b)) with (c_SIZEOF_uint32 + c_SIZEOF_uint32 + len b).
    unfold elem_len. cbn [flat_single flat_elem ft_fixed size_elem]. szsimp. split; lia.
  - (* IMsg *)
    intros m IH ft Hf Hwf. destruct ft; cbn in Hwf; try contradiction; try discriminate Hf.
    unfold elem_len. cbn [flat_single size_single flat_elem ft_fixed size_elem]. szsimp. rewrite (IH Hwf). split; lia.
  - (* IOpaque *)
    intros id ft Hf Hwf. destruct ft; cbn in Hwf; try contradiction; try discriminate Hf.
  - (* INil *)
    intros ft Hf _. unfold items_flat_len. cbn [flat_items len items_len size_items]. destruct ft; cbn; reflexivity.
  - (* ICons *)
    intros i IHi t IHt ft Hf [Hwi Hwt].
    cbn [flat_items]. rewrite len_app. destruct (IHi ft Hf Hwi) as [_ ->]. rewrite (IHt ft Hf Hwt).
    unfold items_flat_len, elem_len. cbn [items_len size_items].
    destruct (ft_fixed ft); [lia|]. destruct ft; lia.
  - (* RInline *)
    intros i IH ft Hf Hw. cbn [flat_repr size_repr]. apply (IH ft Hf Hw).
  - (* RArray *)
    intros l IH ft Hf Hw. cbn in Hw. specialize (IH ft Hf Hw). unfold items_flat_len in IH.
    destruct ft; try discriminate Hf; cbn [flat_repr size_repr ft_fixed] in *; szsimp;
      rewrite ?IH; try reflexivity; try (vm_compute (cpp_size _); vm_compute (arr_unit _); lia); lia.
  - (* FNil *) intros _. reflexivity.
  - (* FCons *)
    intros n tc r IHr t IHt (Hn & Htc & Hr & Ht).
    cbn [flat_fields size_fields]. rewrite len_app, (IHt Ht).
    destruct (flattenable tc) eqn:Fl; [|reflexivity].
    szsimp. rewrite (IHr _ Fl Hr). unfold str_flat_size. lia.
  - (* Msg *)
    intros w fs IH (Hw & Hnd & Hfs). cbn [flat_msg size_msg]. szsimp. rewrite (IH Hfs). lia.
Qed.

Lemma flat_items_len (ft : ftype) (l : items) :
  ft_flattenable ft = true -> wf_items ft l -> len (flat_items ft l) = items_flat_len ft l.
Proof. apply flatten_length_all. Qed.

Lemma flat_repr_len (ft : ftype) (r : repr) :
  ft_flattenable ft = true -> wf_repr ft r -> len (flat_repr ft r) = size_repr ft r.
Proof. apply flatten_length_all. Qed.

Lemma flat_fields_len (fs : fields) : wf_fields fs -> len (flat_fields fs) = size_fields fs.
Proof. apply flatten_length_all. Qed.

Lemma flat_msg_len (m : msg) : wf_msg m -> len (flat_msg m) = size_msg m.
Proof. apply flatten_length_all. Qed.

Theorem flatten_length (m : msg) : wf_msg m -> len (flatten m) = flattened_size m.
Proof. exact (flat_msg_len m). Qed.

Corollary flatten_length_nat (m : msg) : wf_msg m -> N.of_nat (length (flatten m)) = flattened_size m.
Proof. intro H. rewrite <- len_length. apply flatten_length. exact H. Qed.
