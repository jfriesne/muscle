(* Msg/MsgInstrProofs.v -- C02: proofs about the instrumented parser model (MsgInstr.v):
   the safety invariant of Message::Unflatten.

   For a fixed received buffer [bs] (L = its length, L < 2^31) every function of the model is shown to satisfy one
   combined specification [safe]: started on a reader whose window lies inside the buffer ([rok]) and a log whose
   accesses are all in bounds ([lok]), it ends with such a reader and such a log, leaves the window (base, limit) alone,
   never moves the cursor backwards, never reaches an MCRASH, loads no non-boolean byte into a bool, runs out of fuel
   only when the bytes available reach the fuel, deepens the recorded nesting level by at most what the bytes
   available can pay for at 28 bytes per level, and allocates in proportion to the bytes.  The specification has
   rules ([post_via] and its instances: sequencing, one rule per primitive of the reader) and the parsers are walked
   through by them.  The loops go by induction on their fuel, Message::Unflatten by induction on the nesting fuel with
   the next level as hypothesis. *)
From Coq Require Import List NArith Bool Lia Strings.Byte.
From Muscle Require Import Gen.Consts Msg.MsgDefs Msg.MsgInstr.
Import ListNotations.
Local Open Scope N_scope.

(* ------------------------------------------------------------------ lists measured in N *)
Lemma len_nat {A} (l : list A) : len l = N.of_nat (length l).
Proof. induction l as [|x t IH]; cbn [len length]; [reflexivity | rewrite IH; lia]. Qed.

Lemma len_nil_iff {A} (l : list A) : len l = 0 <-> l = [].
Proof. destruct l; cbn [len]; split; intro H; try reflexivity; try discriminate; lia. Qed.

Lemma len_takeN {A} (k : N) (l : list A) : len (takeN k l) = N.min k (len l).
Proof.
  revert k; induction l as [|x t IH]; intro k; cbn [takeN len]; [lia|].
  destruct (N.eqb_spec k 0) as [->|Hk]; cbn [len]; [lia|].
  rewrite IH. lia.
Qed.

Lemma len_dropN {A} (k : N) (l : list A) : len (dropN k l) = len l - k.
Proof.
  revert k; induction l as [|x t IH]; intro k; cbn [dropN len]; [lia|].
  destruct (N.eqb_spec k 0) as [->|Hk]; cbn [len]; [lia|].
  rewrite IH. lia.
Qed.

Lemma len_app {A} (a b : list A) : len (a ++ b) = len a + len b.
Proof. induction a as [|x t IH]; cbn [app len]; [lia | rewrite IH; lia]. Qed.

Lemma nul_index_bounds (w : bytes) (i k : N) : nul_index w i = Some k -> i <= k /\ k < i + len w.
Proof.
  revert i; induction w as [|b t IH]; intro i; cbn [nul_index len]; [discriminate|].
  destruct (is_nul b).
  - intro H; injection H as <-. lia.
  - intro H. apply IH in H. lia.
Qed.

(* ------------------------------------------------------------------ what a parsed Message looks like *)
Definition nul_free (s : bytes) : Prop := nul_index s 0 = None.
Definition fix_ok (ft : ftype) (bs : bytes) : Prop :=
  match ft with TBool => bs = [x00] \/ bs = [x01] | _ => len bs = cpp_size ft end.

(* every item has the kind its field's type code calls for, fixed-width items have exactly their width (bools are 0/1),
   strings and field names hold no NUL, what-codes and type codes are 32-bit values -- at every nesting level *)
Fixpoint shape_msg (m : msg) : Prop :=
  match m with Msg w fs => w < two32 /\ shape_fields fs end
with shape_fields (fs : fields) : Prop :=
  match fs with
  | FNil => True
  | FCons n tc r t => nul_free n /\ tc < two32 /\ shape_repr (ftype_of_tc tc) r /\ shape_fields t
  end
with shape_repr (ft : ftype) (r : repr) {struct r} : Prop :=
  match r with RInline i => shape_item ft i | RArray l => shape_items ft l end
with shape_item (ft : ftype) (i : item) {struct i} : Prop :=
  match i with
  | IFix bs => ft_fixed ft = true /\ fix_ok ft bs
  | IStr s => ft = TString /\ nul_free s
  | IRaw _ => ft = TRaw
  | IMsg m => ft = TMessage /\ shape_msg m
  | IOpaque _ => False
  end
with shape_items (ft : ftype) (l : items) {struct l} : Prop :=
  match l with INil => True | ICons i t => shape_item ft i /\ shape_items ft t end.

Lemma shape_items_snoc ft l i : shape_items ft l -> shape_item ft i -> shape_items ft (items_snoc l i).
Proof.
  unfold items_snoc. induction l as [|j t IH]; cbn [items_app shape_items]; intros H Hi; [tauto|].
  destruct H as [Hj Ht]. split; [exact Hj | apply IH; assumption].
Qed.

Lemma shape_fields_snoc fs n tc r :
  shape_fields fs -> nul_free n -> tc < two32 -> shape_repr (ftype_of_tc tc) r -> shape_fields (fsnoc fs n tc r).
Proof.
  unfold fsnoc. induction fs as [|k tc' r' t IH]; cbn [fapp shape_fields]; intros H Hn Ht Hr; [tauto|].
  destruct H as (A & B & C & D). repeat split; try assumption. apply IH; assumption.
Qed.

(* fset keeps the stored type code of the entry it overwrites; the caller passes that same code *)
Lemma shape_fields_set fs n tc r :
  shape_fields fs -> (forall tc' r', flookup n fs = Some (tc', r') -> tc = tc') ->
  shape_repr (ftype_of_tc tc) r -> shape_fields (fset n tc r fs).
Proof.
  induction fs as [|k tc' r' t IH]; cbn [fset shape_fields flookup]; intros H Hl Hr; [exact I|].
  destruct H as (A & B & C & D). destruct (bytes_eqb n k) eqn:E.
  - specialize (Hl tc' r' eq_refl). subst tc'. cbn [shape_fields]. repeat split; assumption.
  - cbn [shape_fields]. repeat split; try assumption. apply IH; assumption.
Qed.

Lemma nul_index_none w : forall i j, nul_index w i = None -> nul_index w j = None.
Proof.
  induction w as [|b t IH]; intros i j; cbn [nul_index]; [reflexivity|].
  destruct (is_nul b); [discriminate | apply IH].
Qed.

(* the bytes before the first NUL hold none *)
Lemma nul_index_prefix w : forall i k, nul_index w i = Some k -> nul_free (takeN (k - i) w).
Proof.
  unfold nul_free. induction w as [|b t IH]; intros i k; cbn [nul_index]; [discriminate|].
  destruct (is_nul b) eqn:Eb.
  - intro H; injection H as <-. rewrite N.sub_diag. cbn [takeN]. reflexivity.
  - intro H. pose proof (nul_index_bounds _ _ _ H) as [Hb _].
    cbn [takeN]. destruct (N.eqb_spec (k - i) 0) as [Hz|Hz]; [reflexivity|].
    cbn [nul_index]. rewrite Eb.
    specialize (IH (N.succ i) k H). apply (nul_index_none _ 0 (N.succ 0)).
    replace (N.pred (k - i)) with (k - N.succ i) by lia. exact IH.
Qed.

Lemma takeN_takeN {A} (a b : N) (l : list A) : a <= b -> takeN a (takeN b l) = takeN a l.
Proof.
  revert a b; induction l as [|x t IH]; intros a b H; cbn [takeN]; [reflexivity|].
  destruct (N.eqb_spec b 0) as [->|Hb].
  - replace a with 0 by lia. cbn [takeN]. reflexivity.
  - cbn [takeN]. destruct (N.eqb_spec a 0); [reflexivity|]. f_equal. apply IH. lia.
Qed.

Lemma N_of_byte_lt b : N_of_byte b < 256.
Proof. unfold N_of_byte. pose proof (Byte.to_N_bounded b). lia. Qed.

Lemma le_dec_lt bs : le_dec bs < 256 ^ len bs.
Proof.
  induction bs as [|b t IH]; cbn [le_dec len]; [cbn; lia|].
  rewrite N.pow_succ_r'. pose proof (N_of_byte_lt b). nia.
Qed.

Lemma bool_items_shape b : shape_items TBool (bool_items b).
Proof.
  induction b as [|x t IH]; cbn [bool_items shape_items]; [exact I|].
  split; [|exact IH]. cbn [shape_item]. split; [reflexivity|]. unfold fix_ok, norm_bool. destruct (is_nul x); tauto.
Qed.

Lemma split_items_shape ft sz : ft_fixed ft = true -> ft <> TBool -> cpp_size ft = sz ->
  forall n w, len w = N.of_nat n * sz -> shape_items ft (split_items n sz w).
Proof.
  intros Hf Hb Hs. induction n as [|n IH]; intros w Hw; cbn [split_items shape_items]; [exact I|].
  split.
  - cbn [shape_item]. split; [exact Hf|]. unfold fix_ok. destruct ft; try congruence; rewrite len_takeN; lia.
  - apply IH. rewrite len_dropN. lia.
Qed.

Lemma cpp_size_pos ft : ft_fixed ft = true -> 0 < cpp_size ft.
Proof. destruct ft; cbn; intro H; try discriminate; reflexivity. Qed.

Lemma u32_small x : x < 4294967296 -> u32 x = x.
Proof. intro H. unfold u32, two32. apply N.mod_small; exact H. Qed.

Lemma bnd_ret {A} (m : M A) r l : bnd m ret r l = m r l.
Proof. unfold bnd, ret. destruct (m r l) as [[[a| | |] r1] l1]; reflexivity. Qed.

Lemma div_exact a s : 0 < s -> a mod s = 0 -> a / s * s = a.
Proof. intros Hs Hm. pose proof (N.div_mod a s ltac:(lia)) as E. rewrite Hm, N.add_0_r, N.mul_comm in E. symmetry; exact E. Qed.

Lemma wire_size_msg : wire_size TMessage = 0.
Proof. vm_compute. reflexivity. Qed.

(* ------------------------------------------------------------------ the invariant *)
Section Safety.
  Variable bs : bytes.
  Let L : N := len bs.
  Hypothesis HL : L < 2147483648.

  Definition rok (r : rdr) : Prop := r_base r + r_max r <= L /\ r_rd r <= r_max r.
  Definition lok (l : log) : Prop := Forall (in_bounds L) (l_tr l).
  Definition frame (r r' : rdr) : Prop := r_base r' = r_base r /\ r_max r' = r_max r /\ r_rd r <= r_rd r'.

  (* the allocation bound: KA model-bytes of requests per byte of input.  128 is a round figure above the dearest
     fixed cost per byte, the first field of a Message: a table of tbl_default entries, one grown entry and an array
     object, 812 model-bytes against the 13 bytes an entry takes at least (entries_loop_safe) *)
  Definition KA : N := 128.

  (* What a run from (r, l) to (r', l') is held to whatever its outcome: the window (base, limit) is left alone, the
     cursor has not moved back, all accesses are in bounds, no non-boolean byte went into a bool, and the recorded
     depth costs at most c + the bytes that were available, at 28 bytes a level: what a Message spends before one of
     its sub-Messages is entered, 12 for its header, at least 12 for the entry's name, type code and length, 4 for the
     sub-Message's size word. *)
  Definition reach (c : N) (r : rdr) (l : log) (r' : rdr) (l' : log) : Prop :=
    rok r' /\ frame r r' /\ lok l' /\ l_ub l' = l_ub l /\ 28 * l_dp l' <= N.max (28 * l_dp l) (c + avail r).
  (* ... and by outcome:
       Ok a    at least [P a] bytes were consumed; allocation stayed within [rho] per byte consumed; [Q a];
       Err     allocation stayed within [rho] per byte that was available;
       Fuel    only when at least [k] bytes were available;
       Crash   never.
     [E] is allocation allowed on top, [D] allocation the caller has made already and this run has to earn back:
     the two only matter through E - D, kept apart because N has no negative numbers. *)
  Definition post {A} (rho k c : N) (P : A -> N) (E D : N) (Q : A -> Prop) (r : rdr) (l : log)
                  (y : res A * rdr * log) : Prop :=
    rok r -> lok l ->
    let '(x, r', l') := y in
    reach c r l r' l' /\
    match x with
    | Ok a => avail r' + P a <= avail r /\ l_al l' + rho * avail r' + D <= l_al l + rho * avail r + E /\ Q a
    | Err => l_al l' + D <= l_al l + rho * avail r + E
    | Fuel => k <= avail r
    | Crash => False
    end.
  Definition safe {A} (rho k c : N) (P : A -> N) (E : N) (Q : A -> Prop) (m : M A) : Prop :=
    forall r l, post rho k c P E 0 Q r l (m r l).

  Lemma NOLIM_val : NOLIM = 4294967295.  Proof. reflexivity. Qed.
  Lemma W_val : W = 4.  Proof. reflexivity. Qed.

  Lemma avail_ok r : rok r -> avail r = r_max r - r_rd r.
  Proof.
    intros [H1 H2]. unfold avail. rewrite NOLIM_val.
    destruct (N.eqb_spec (r_max r) 4294967295); [lia|].
    destruct (N.ltb_spec (r_rd r) (r_max r)); lia.
  Qed.

  Lemma rok_span r : rok r -> pos r + avail r <= L /\ avail r < 2147483648.
  Proof. intro Hr. rewrite (avail_ok r Hr). unfold rok, pos in *. lia. Qed.

  Lemma lok_touch o k l : lok l -> o + k <= L -> lok (touch o k l).
  Proof. intros H Hb. unfold lok, touch; cbn [l_tr]. constructor; [exact Hb | exact H]. Qed.

  Lemma len_slice o k : o + k <= L -> len (slice bs o k) = k.
  Proof. intro H. unfold slice. rewrite len_takeN, len_dropN. fold L. lia. Qed.

  Lemma le_dec_slice o k : le_dec (slice bs o k) < 256 ^ k.
  Proof.
    eapply N.lt_le_trans; [apply le_dec_lt|]. apply N.pow_le_mono_r; [lia|].
    unfold slice. rewrite len_takeN. lia.
  Qed.

  Lemma frame_refl r : frame r r.
  Proof. unfold frame; repeat split; lia. Qed.

  Lemma frame_trans a b c : frame a b -> frame b c -> frame a c.
  Proof. unfold frame; intros (A1 & A2 & A3) (B1 & B2 & B3); repeat split; lia. Qed.

  Lemma reach_log c r l l1 :
    lok l1 -> l_ub l1 = l_ub l -> 28 * l_dp l1 <= N.max (28 * l_dp l) (c + avail r) -> rok r -> reach c r l r l1.
  Proof. intros H1 H2 H3 Hr. exact (conj Hr (conj (frame_refl r) (conj H1 (conj H2 H3)))). Qed.

  Lemma reach_refl c r l : rok r -> lok l -> reach c r l r l.
  Proof. intros Hr Hl. apply reach_log; [exact Hl | reflexivity | lia | exact Hr]. Qed.

  Ltac rcbn := unfold pos in *; cbn [r_base r_rd r_max r_bad l_tr l_al l_dp l_ub adv flag set_rd set_max touch charge deepen undef fst snd] in *.

  (* the arithmetic side conditions of the rules: budgets, and allocation weighed against bytes.  lia reads every
     hypothesis it is given, and the specifications in the context are large: only the order facts are kept for it *)
  Ltac side := cbv beta delta [KA cost_msg cost_entry cost_arr cost_bb cost_ref grow tbl_default W
                  c_SIZEOF_Message c_SIZEOF_uint32 c_SIZEOF_String c_SIZEOF_MessageField c_SIZEOF_ByteBuffer
                  c_SIZEOF_MessageRef c_MUSCLE_HASHTABLE_DEFAULT_CAPACITY]; intros;
    repeat match goal with H : ?T |- _ =>
      lazymatch T with _ <= _ => fail | _ < _ => fail | @eq N _ _ => fail | le _ _ => fail | _ => clear H end end;
    lia.

  (* A run that gets from (r, l) to (r1, l1) -- consuming at least n bytes, allocating e, and earning g through bytes it
     consumed below the rate -- and goes on from there as [post] says, is a run from (r, l): the continuation may run
     out of fuel n bytes earlier, may deepen n bytes' worth further, owes n bytes less progress, has g more to spend
     and e more to earn back.  Every rule below is an instance. *)
  Lemma post_via {A} r1 l1 n g e k' c' P' E' D' rho k c (P : A -> N) E D (Q : A -> Prop) r l y :
    (rok r -> lok l -> reach c r l r1 l1 /\
       avail r1 + n <= avail r /\ l_al l1 + rho * avail r1 + g <= l_al l + rho * avail r + e) ->
    post rho k' c' P' E' D' Q r1 l1 y ->
    k <= k' + n -> c' <= c + n -> (forall a, P a <= P' a + n) -> E' + D + e <= E + g + D' ->
    post rho k c P E D Q r l y.
  Proof.
    intros H1 H2 Hk Hc HP HE Hr Hl. destruct (H1 Hr Hl) as ((Hr1 & Hf & Hl1 & Hub & Hdp) & Hn & Hal).
    specialize (H2 Hr1 Hl1). destruct y as [[x r2] l2]. destruct H2 as ((Hr2 & Hf2 & Hl2 & Hub2 & Hdp2) & Hx).
    split; [refine (conj Hr2 (conj (frame_trans _ _ _ Hf Hf2) (conj Hl2 (conj (eq_trans Hub2 Hub) _)))); lia|].
    destruct x as [a| | |].
    - destruct Hx as (X1 & X2 & X3). specialize (HP a). split; [lia|]. split; [lia | exact X3].
    - lia.
    - lia.
    - exact Hx.
  Qed.

  Lemma post_weaken {A} k' c' P' E' D' (Q' : A -> Prop) rho k c (P : A -> N) E D (Q : A -> Prop) r l y :
    post rho k' c' P' E' D' Q' r l y ->
    k <= k' -> c' <= c -> (forall a, P a <= P' a) -> E' + D <= E + D' -> (forall a, Q' a -> Q a) ->
    post rho k c P E D Q r l y.
  Proof.
    intros H Hk Hc HP HE HQ. apply (post_via r l 0 0 0 k' c' P' E' D'); try side.
    - intros Hr Hl. split; [apply reach_refl; assumption | lia].
    - intros Hr Hl. specialize (H Hr Hl). destruct y as [[x r'] l']. destruct x; try exact H.
      destruct H as (H1 & H2 & H3 & H4). exact (conj H1 (conj H2 (conj H3 (HQ _ H4)))).
    - intro a. specialize (HP a). lia.
  Qed.

  Lemma post_intro {A} rho k c (P : A -> N) E D Q r l y :
    (rok r -> lok l -> post rho k c P E D Q r l y) -> post rho k c P E D Q r l y.
  Proof. intros H Hr Hl. exact (H Hr Hl Hr Hl). Qed.

  Section Rules.
    Context {C : Type} (rho k c : N) (P : C -> N) (E D : N) (Q : C -> Prop) (r : rdr) (l : log).

    Lemma post_ret a : P a = 0 -> D <= E -> Q a -> post rho k c P E D Q r l (ret a r l).
    Proof. intros HP HD HQ Hr Hl. split; [apply reach_refl; assumption|]. repeat split; try lia. exact HQ. Qed.

    Lemma post_fail r' : r' = r \/ r' = flag r -> D <= rho * avail r + E -> post rho k c P E D Q r l (Err, r', l).
    Proof.
      intros Hr' HD Hr Hl. split; [|lia].
      destruct Hr' as [-> | ->]; [apply reach_refl; assumption | exact (reach_refl c r l Hr Hl)].
    Qed.

    Lemma post_err : D <= rho * avail r + E -> post rho k c P E D Q r l (err r l).
    Proof. apply post_fail. left; reflexivity. Qed.

    Lemma post_nofuel : k <= avail r -> post rho k c P E D Q r l (nofuel r l).
    Proof. intros Hk Hr Hl. split; [apply reach_refl; assumption | exact Hk]. Qed.

    (* m may be held to a lower rate rho1 than the whole: what it consumed earns the difference *)
    Lemma post_bnd {A} rho1 (P1 : A -> N) E1 (Q1 : A -> Prop) (m : M A) (f : A -> M C) :
      post rho1 k c P1 E1 0 Q1 r l (m r l) -> rho1 <= rho -> D + E1 <= (rho - rho1) * avail r + E ->
      (forall a r1 l1, avail r1 + P1 a <= avail r -> Q1 a ->
         post rho (k - P1 a) (c + P1 a) (fun b => P b - P1 a) (E + (rho - rho1) * P1 a) (D + E1) Q r1 l1 (f a r1 l1)) ->
      post rho k c P E D Q r l (bnd m f r l).
    Proof.
      intros Hm Hrho HD Hf Hr Hl. specialize (Hm Hr Hl). unfold bnd.
      destruct (m r l) as [[x r1] l1]. destruct Hm as (Hre & Hx).
      remember (rho - rho1) as q. assert (rho = rho1 + q) by lia. subst rho.
      destruct x as [a| | |]; [|split; [exact Hre|]; rewrite ?N.mul_add_distr_r; lia..].
      destruct Hx as (X1 & X2 & X3).
      apply (post_via r1 l1 (P1 a) (q * P1 a) E1) with (2 := Hf a r1 l1 X1 X3); try side; [|assumption..].
      intros _ _. split; [exact Hre|]. split; [exact X1|].
      pose proof (N.mul_le_mono_l _ _ q X1) as Hq. rewrite !N.mul_add_distr_r. rewrite N.mul_add_distr_l in Hq. lia.
    Qed.

    Lemma post_call {A} rho1 k1 c1 (P1 : A -> N) E1 (Q1 : A -> Prop) (m : M A) (f : A -> M C) :
      safe rho1 k1 c1 P1 E1 Q1 m -> k <= k1 -> c1 <= c -> rho1 <= rho -> D + E1 <= (rho - rho1) * avail r + E ->
      (forall a r1 l1, avail r1 + P1 a <= avail r -> Q1 a ->
         post rho (k - P1 a) (c + P1 a) (fun b => P b - P1 a) (E + (rho - rho1) * P1 a) (D + E1) Q r1 l1 (f a r1 l1)) ->
      post rho k c P E D Q r l (bnd m f r l).
    Proof. intros Hm Hk Hc. apply post_bnd. eapply post_weaken; [apply Hm | side.. | auto]. Qed.

    Lemma post_get_avail f : post rho k c P E D Q r l (f (avail r) r l) -> post rho k c P E D Q r l (bnd get_avail f r l).
    Proof. exact (fun H => H). Qed.
    Lemma post_get_pos f : post rho k c P E D Q r l (f (pos r) r l) -> post rho k c P E D Q r l (bnd get_pos f r l).
    Proof. exact (fun H => H). Qed.

    Lemma post_log l1 e y :
      (lok l -> lok l1) -> l_ub l1 = l_ub l -> 28 * l_dp l1 <= N.max (28 * l_dp l) (c + avail r) -> l_al l1 = l_al l + e ->
      post rho k c P E (D + e) Q r l1 y -> post rho k c P E D Q r l y.
    Proof.
      intros H1 H2 H3 H4 H. apply (post_via r l1 0 0 e) with (2 := H); [|side..].
      intros Hr Hl. split; [exact (reach_log c r l l1 (H1 Hl) H2 H3 Hr) | lia].
    Qed.

    Lemma post_alloc n f : (forall l1, post rho k c P E (D + n) Q r l1 (f tt r l1)) -> post rho k c P E D Q r l (bnd (alloc n) f r l).
    Proof. intro H. apply (post_log (charge n l) n); try reflexivity; [exact (fun H => H) | cbn [charge l_dp]; lia | apply H]. Qed.

    Lemma post_enter d f : 28 * d <= c + avail r -> (forall l1, post rho k c P E D Q r l1 (f tt r l1)) -> post rho k c P E D Q r l (bnd (enter d) f r l).
    Proof.
      intros Hd H. apply (post_log (deepen d l) 0); try reflexivity; [exact (fun H => H) | cbn [deepen l_dp]; lia | cbn [deepen l_al]; lia |].
      eapply post_weaken; [apply H | side.. | auto].
    Qed.

    Lemma post_touch o n y : o + n <= L -> post rho k c P E D Q r (touch o n l) y -> post rho k c P E D Q r l y.
    Proof.
      intros Ho H. apply (post_log (touch o n l) 0); try reflexivity; [intro Hl; apply lok_touch; assumption | cbn [touch l_dp]; lia | cbn [touch l_al]; lia |].
      eapply post_weaken; [apply H | side.. | auto].
    Qed.

    (* GetByteBufferFromPool(n, p) copies nothing when n = 0 *)
    Lemma post_peek_opt o n f : (n <> 0 -> o + n <= L) -> (forall b l1, post rho k c P E D Q r l1 (f b r l1)) ->
      post rho k c P E D Q r l (bnd (if n =? 0 then ret [] else peek bs o n) f r l).
    Proof. intros Ho H. destruct (N.eqb_spec n 0) as [Hz|Hz]; [apply H | apply (post_touch o n); [exact (Ho Hz) | apply H]]. Qed.

    (* MRETURN_ON_ERROR(unflat.GetStatus()) *)
    Lemma post_status f : D <= rho * avail r + E -> (r_bad r = false -> post rho k c P E D Q r l (f tt r l)) -> post rho k c P E D Q r l (bnd status f r l).
    Proof.
      intros HD H. unfold bnd, status. destruct (r_bad r); [apply post_fail; [left; reflexivity | exact HD] | exact (H eq_refl)].
    Qed.

    Lemma post_guard b f : D <= rho * avail r + E -> (b = true -> post rho k c P E D Q r l (f tt r l)) -> post rho k c P E D Q r l (bnd (guard b) f r l).
    Proof. intros HD H. destruct b; [exact (H eq_refl) | apply post_err; exact HD]. Qed.

    Lemma post_move r1 n (g : rdr -> res C * rdr * log) :
      (rok r -> rok r1 /\ frame r r1 /\ r_rd r1 = r_rd r + n) ->
      (forall r2, avail r2 + n = avail r -> post rho (k - n) (c + n) (fun b => P b - n) (E + rho * n) D Q r2 l (g r2)) -> post rho k c P E D Q r l (g r1).
    Proof.
      intros H1 H. apply post_intro; intros Hr Hl. destruct (H1 Hr) as (A1 & A2 & A3).
      assert (Ha : avail r1 + n = avail r).
      { rewrite (avail_ok r Hr), (avail_ok r1 A1). destruct A1 as [_ Hm], A2 as (_ & F & _). lia. }
      apply (post_via r1 l n (rho * n) 0) with (2 := H r1 Ha); [|side..].
      intros _ _. split; [refine (conj A1 (conj A2 (conj Hl (conj eq_refl _)))); lia|]. rewrite <- Ha, N.mul_add_distr_l. lia.
    Qed.

  End Rules.

  Section Reads.
    Context {C : Type} (rho k c : N) (P : C -> N) (E D : N) (Q : C -> Prop) (r : rdr) (l : log).

    (* ReadInt32 / ReadByte / ReadBytes when the n bytes are there *)
    Lemma post_read n (g : rdr -> log -> res C * rdr * log) :
      n <= avail r -> (forall r1 l1, avail r1 + n = avail r -> post rho (k - n) (c + n) (fun b => P b - n) (E + rho * n) D Q r1 l1 (g r1 l1)) -> post rho k c P E D Q r l (g (adv n r) (touch (pos r) n l)).
    Proof.
      intros Hn H. apply post_intro; intros Hr Hl. destruct (rok_span r Hr) as [Hsp _].
      apply post_touch with (o := pos r) (n := n); [lia|].
      apply post_move with (r1 := adv n r) (n := n) (g := fun r1 => g r1 _); [|intros r1; apply H].
      intros _. rewrite (avail_ok r Hr) in Hn. unfold rok, frame in *; rcbn. lia.
    Qed.

    (* ReadInt32 / ReadByte: the value and n bytes of progress, or 0 on a reader that stays flagged *)
    Lemma post_rd_val n f :
      (n <= avail r -> forall v r1 l1, v < 256 ^ n -> avail r1 + n = avail r -> post rho (k - n) (c + n) (fun b => P b - n) (E + rho * n) D Q r1 l1 (f v r1 l1)) ->
      (avail r < n -> forall r1, avail r1 = avail r -> r_bad r1 = true -> post rho k c P E D Q r1 l (f 0 r1 l)) ->
      post rho k c P E D Q r l (bnd (rd_val bs n) f r l).
    Proof.
      intros Hok Hbad. unfold bnd, rd_val. destruct (N.leb_spec n (avail r)) as [Hn|Hn].
      - apply (post_read n (f _)); [exact Hn|]. intros r1 l1. apply (Hok Hn), le_dec_slice.
      - exact (Hbad Hn (flag r) eq_refl eq_refl).
    Qed.

    (* x = ReadInt32(); MRETURN_ON_ERROR(GetStatus()): the value counts only when it was read *)
    Lemma post_rd_checked n f :
      D <= rho * avail r + E ->
      (n <= avail r -> forall v r1 l1, v < 256 ^ n -> avail r1 + n = avail r -> post rho (k - n) (c + n) (fun b => P b - n) (E + rho * n) D Q r1 l1 (f v r1 l1)) ->
      post rho k c P E D Q r l (bnd (rd_val bs n) (fun v => status ;;; f v) r l).
    Proof.
      intros HD H. apply post_rd_val.
      - intros Hn v r1 l1 Hv Ha. apply post_status; [rewrite <- Ha, N.mul_add_distr_l in HD; lia | intros _; apply H; assumption].
      - intros _ r1 Ha Hb. apply post_status; [rewrite Ha; exact HD | congruence].
    Qed.

    (* SeekTo a place n bytes ahead, inside the window *)
    Lemma post_seek_to n f :
      n <= avail r -> (forall r1, avail r1 + n = avail r -> post rho (k - n) (c + n) (fun b => P b - n) (E + rho * n) D Q r1 l (f tt r1 l)) -> post rho k c P E D Q r l (bnd (seek_to (r_rd r + n)) f r l).
    Proof.
      intros Hn H. apply post_intro; intros Hr Hl. rewrite (avail_ok r Hr) in Hn. pose proof HL.
      assert (Es : seek_to (r_rd r + n) r l = (Ok tt, set_rd (r_rd r + n) r, l)).
      { destruct Hr as [H1 H2]. unfold seek_to. rewrite NOLIM_val.
        destruct (N.eqb_spec (r_rd r + n) 4294967295); [lia|]. destruct (N.ltb_spec (r_max r) (r_rd r + n)); [lia | reflexivity]. }
      unfold bnd. rewrite Es. apply post_move with (n := n) (g := fun r1 => f tt r1 l); [|exact H].
      intros _. unfold rok, frame in *; rcbn. lia.
    Qed.

    (* SeekRelative(n) over bytes known to be there; with more than are there it may go backwards (n >= 2^31) *)
    Lemma post_seek_rel n f :
      n <= avail r -> (forall r1, avail r1 + n = avail r -> post rho (k - n) (c + n) (fun b => P b - n) (E + rho * n) D Q r1 l (f tt r1 l)) -> post rho k c P E D Q r l (bnd (seek_rel n) f r l).
    Proof.
      intros Hn H. apply post_intro; intros Hr Hl. destruct (rok_span r Hr) as [_ Hsp].
      replace (bnd (seek_rel n) f r l) with (bnd (seek_to (r_rd r + n)) f r l); [apply post_seek_to; assumption|].
      unfold bnd, seek_rel, two32. destruct (N.eqb_spec n 0) as [->|Hz]; [rewrite N.add_0_r; reflexivity|].
      destruct (N.ltb_spec n 2147483648); [|lia]. destruct (N.leb_spec 4294967296 (r_rd r + n)); [|reflexivity].
      pose proof HL. unfold rok in Hr. lia.
    Qed.

    Lemma post_seek_to_end f :
      (forall r1, avail r1 = 0 -> post rho (k - avail r) (c + avail r) (fun b => P b - avail r) (E + rho * avail r) D Q r1 l (f tt r1 l)) -> post rho k c P E D Q r l (bnd seek_to_end f r l).
    Proof.
      intros H. apply post_intro; intros Hr Hl.
      replace (bnd seek_to_end f r l) with (bnd (seek_to (r_rd r + avail r)) f r l).
      - apply post_seek_to; [lia|]. intros r1 Ha. apply H. lia.
      - unfold bnd, seek_to_end. rewrite (avail_ok r Hr). destruct Hr as [_ Hr]. replace (r_rd r + (r_max r - r_rd r)) with (r_max r) by lia. reflexivity.
    Qed.
  End Reads.

  Lemma avail_child o n : n < 4294967295 -> avail (mkR o 0 n false) = n.
  Proof.
    intro H. unfold avail; cbn [r_max r_rd]. rewrite NOLIM_val.
    destruct (N.eqb_spec n 4294967295); [lia|]. destruct (N.ltb_spec 0 n); lia.
  Qed.

  (* ReadFlat: the child sees at most what the parent has left, and the parent advances by what the child read *)
  Lemma safe_sub_reader {A} rho k c (P : A -> N) E Q lim (m : M A) :
    safe rho k c P E Q m -> safe rho k c P E Q (sub_reader lim m).
  Proof.
    intros Hm r l Hr Hl. pose proof HL. pose proof (avail_ok r Hr) as Ha. destruct (rok_span r Hr) as [Hsp Hlt].
    unfold sub_reader. set (n := N.min lim (avail r)). assert (Hn : n <= avail r) by apply N.le_min_r. clearbody n.
    assert (Hc : rok (mkR (pos r) 0 n false)) by (unfold rok; cbn [r_base r_max r_rd]; lia).
    specialize (Hm _ l Hc Hl). unfold reach in Hm. rewrite avail_child in Hm by lia.
    destruct (m (mkR (pos r) 0 n false) l) as [[x r1] l1]. destruct Hm as ((C & (_ & F2 & _) & Hl1 & Hub & Hdp) & Hx).
    pose proof (avail_ok r1 C) as Ha1. destruct C as [_ C2]. cbn [r_base r_max r_rd] in *. rewrite F2 in Ha1.
    assert (Hre : forall r', r' = r \/ r' = flag r \/ r' = adv (r_rd r1) r -> reach c r l r' l1).
    { intros r' Hr'. destruct Hr as [R1 R2]. unfold reach, rok, frame.
      destruct Hr' as [-> | [-> | ->]]; rcbn; repeat split; try assumption; lia. }
    assert (rho * n <= rho * avail r) by (apply N.mul_le_mono_l; lia).
    destruct x as [a| | |]; (split; [apply Hre; auto|]); try lia.
    destruct Hx as (X1 & X2 & X3).
    rewrite (avail_ok _ (proj1 (Hre _ (or_intror (or_intror eq_refl))))). rcbn.
    replace (r_max r - (r_rd r + r_rd r1)) with (avail r1 + (avail r - n)) by (destruct Hr; lia).
    replace (avail r) with (n + (avail r - n)) at 2 4 by lia. rewrite !N.mul_add_distr_l. repeat split; try lia. exact X3.
  Qed.

  (* DataUnflattenerReadLimiter: the limit is lowered while m runs and put back afterwards *)
  Lemma safe_with_limit {A} rho k c (P : A -> N) E Q lim (m : M A) :
    safe rho k c P E Q m -> safe rho k c P E Q (with_limit lim m).
  Proof.
    intros Hm r l Hr Hl. pose proof HL. pose proof (avail_ok r Hr) as Ha. destruct (rok_span r Hr) as [Hsp Hlt].
    unfold with_limit. set (n := N.min lim (avail r)). assert (Hn : n <= avail r) by apply N.le_min_r. clearbody n. destruct Hr as [R1 R2].
    rewrite u32_small by lia.
    assert (Hc : rok (set_max (r_rd r + n) r)) by (unfold rok; rcbn; lia).
    specialize (Hm _ l Hc Hl). unfold reach in Hm. rewrite (avail_ok _ Hc) in Hm.
    destruct (m (set_max (r_rd r + n) r) l) as [[x r1] l1]. destruct Hm as ((C & (F1 & F2 & F3) & Hl1 & Hub & Hdp) & Hx).
    pose proof (avail_ok r1 C) as Ha1. destruct C as [C1 C2]. rcbn. rewrite F2 in Ha1.
    replace (r_rd r + n - r_rd r) with n in * by lia.
    assert (Hr' : rok (set_max (r_max r) r1)) by (unfold rok; rcbn; lia).
    assert (rho * n <= rho * avail r) by (apply N.mul_le_mono_l; lia).
    split; [unfold reach, rok, frame; rcbn; repeat split; try assumption; lia|].
    destruct x as [a| | |]; try exact Hx; try lia.
    destruct Hx as (X1 & X2 & X3). rewrite (avail_ok _ Hr'). rcbn.
    replace (r_max r - r_rd r1) with (avail r1 + (avail r - n)) by lia.
    replace (avail r) with (n + (avail r - n)) at 2 4 by lia. rewrite !N.mul_add_distr_l. repeat split; try lia. exact X3.
  Qed.

  (* a reader built from a pointer and a size (no clamping): sound when the size is what the parent has available.
     The parent does not move; what the child may allocate becomes the parent's to earn back *)
  Lemma post_fresh {A C} rho k c k1 c1 (P1 : A -> N) E1 (Q1 : A -> Prop) (P : C -> N) E D (Q : C -> Prop)
        (m : M A) n (f : res A -> M C) r l :
    safe rho k1 c1 P1 E1 Q1 m -> n <= avail r -> k <= k1 -> c1 + n <= c + avail r ->
    (forall x l1, (forall a, x = Ok a -> Q1 a) -> post rho k c P E (D + (rho * n + E1)) Q r l1 (f x r l1)) ->
    post rho k c P E D Q r l (bnd (fresh_reader (pos r) n m) f r l).
  Proof.
    intros Hm Hn Hk Hc Hf. apply post_intro; intros Hr Hl. pose proof HL. destruct (rok_span r Hr) as [Hsp Hlt].
    unfold bnd, fresh_reader.
    assert (Hch : rok (mkR (pos r) 0 n false)) by (unfold rok; cbn [r_base r_max r_rd]; lia).
    specialize (Hm _ l Hch Hl). unfold reach in Hm. rewrite avail_child in Hm by lia.
    destruct (m (mkR (pos r) 0 n false) l) as [[x r1] l1]. destruct Hm as (([_ C2] & (_ & F2 & _) & Hl1 & Hub & Hdp) & Hx).
    cbn [r_base r_max r_rd] in *.
    assert (Hre : reach c r l r l1) by (apply reach_log; [exact Hl1 | exact Hub | lia | exact Hr]).
    assert (Hq : forall a, x = Ok a -> Q1 a) by (intros a ->; apply Hx).
    specialize (Hf x l1 Hq).
    destruct x as [a| | |]; [| | intros _ _; split; [exact Hre | lia] | contradiction];
      (apply (post_via r l1 0 0 (rho * n + E1)) with (2 := Hf); [|side..]; intros _ _; split; [exact Hre | lia]).
  Qed.

  Lemma rd_bytes_safe k c n : safe 0 k c (fun _ => n) 0 (fun b => len b = n) (rd_bytes bs n).
  Proof.
    intros r l. apply post_intro; intros Hr Hl. unfold rd_bytes. destruct (N.leb_spec n (avail r)) as [Hn|Hn].
    - destruct (rok_span r Hr) as [Hsp _]. apply post_read with (g := fun r1 l1 => (Ok (slice bs (pos r) n), r1, l1)); [exact Hn|].
      intros r1 l1 _. apply post_ret; [side | side | apply len_slice; lia].
    - apply post_fail; [right; reflexivity | lia].
  Qed.

  Lemma str_cost_le n : str_cost n <= n + 1.
  Proof. unfold str_cost. destruct (c_STRING_MAX_SHORT_LENGTH <? n); lia. Qed.

  (* ReadCString on a reader with a limit: the characters before the first NUL of what is left, at a cost of at most
     the bytes consumed *)
  Lemma read_cstring_safe k c : safe 1 k c (fun s => len s + 1) 0 nul_free (read_cstring bs).
  Proof.
    intros r l. apply post_intro; intros Hr Hl. pose proof HL. destruct (rok_span r Hr) as [Hsp Hlt].
    unfold read_cstring. destruct (N.eqb_spec (avail r) 0); [apply post_fail; [right; reflexivity | lia]|].
    destruct (N.eqb_spec (r_max r) NOLIM) as [Hm|_]; [unfold rok in Hr; rewrite Hm, NOLIM_val in Hr; lia|].
    destruct (nul_index (slice bs (pos r) (avail r)) 0) as [j|] eqn:Ej.
    - pose proof (nul_index_prefix _ _ _ Ej) as Hnf. rewrite N.sub_0_r in Hnf.
      apply nul_index_bounds in Ej. unfold slice in Ej, Hnf. rewrite len_takeN in Ej. rewrite takeN_takeN in Hnf by lia.
      pose proof (str_cost_le j).
      apply post_read with (n := j + 1) (g := fun r1 l1 => (Ok (slice bs (pos r) j), r1, charge (str_cost j) l1)); [lia|].
      intros r1 l1 _. apply post_log with (l1 := charge (str_cost j) l1) (e := str_cost j); try reflexivity;
        [exact (fun H => H) | cbn [charge l_dp]; lia |].
      apply post_ret; [rewrite len_slice by lia; lia | lia | exact Hnf].
    - apply post_touch with (o := pos r) (n := avail r); [lia|]. apply post_fail; [right; reflexivity | lia].
  Qed.

  (* one turn of ReadFlatsWithLengthPrefixes<String>: the string lies with its terminator and its length word inside
     what was consumed *)
  Lemma rd_lp_string_safe k c : safe 1 k c (fun s => 5 + len s) 0 nul_free (rd_lp_string bs).
  Proof.
    intros r l. unfold rd_lp_string. destruct (N.leb_spec W (avail r)) as [H4|H4]; [|apply post_fail; [right; reflexivity | lia]].
    set (n := le_dec (slice bs (pos r) W)).
    apply post_read with (n := W) (g := fun r1 l1 =>
      if n <=? avail r1 then
        let '(x, _, l2) := read_cstring bs (mkR (pos r1) 0 n false) l1 in
        match x with Ok s => (Ok s, adv n r1, l2) | _ => (Err, flag (adv n r1), l2) end
      else (Err, flag r1, l1)); [exact H4|].
    intros r1 l1 _. destruct (N.leb_spec n (avail r1)) as [Hn|Hn]; [|apply post_fail; [right; reflexivity | lia]].
    intros Hr1 Hl1. pose proof HL. destruct (rok_span r1 Hr1) as [Hsp Hlt]. pose proof (avail_ok r1 Hr1) as Ha1.
    assert (Hc : rok (mkR (pos r1) 0 n false)) by (unfold rok; cbn [r_base r_max r_rd]; lia).
    pose proof (read_cstring_safe (n + 1) (c + W) _ l1 Hc Hl1) as S. unfold reach in S. rewrite avail_child in S by lia.
    destruct (read_cstring bs (mkR (pos r1) 0 n false) l1) as [[x rc] l2]. destruct S as ((_ & _ & Hl2 & Hub & Hdp) & Hx).
    assert (Hr' : rok (adv n r1)) by (unfold rok in *; rcbn; lia).
    assert (Ha' : avail (adv n r1) + n = avail r1) by (rewrite (avail_ok _ Hr'), Ha1; destruct Hr'; rcbn; lia).
    assert (Hre : forall r', r' = adv n r1 \/ r' = flag (adv n r1) -> reach (c + W) r1 l1 r' l2).
    { intros r' Hr''. unfold reach, frame. destruct Hr'' as [-> | ->]; (split; [exact Hr'|]); rcbn; repeat split; try assumption; lia. }
    unfold W, c_SIZEOF_uint32 in *.
    destruct x as [s| | |]; (split; [apply Hre; auto|]); try lia.
    destruct Hx as (X1 & X2 & X3). repeat split; try lia. exact X3.
  Qed.

  (* ---------------------------------------------------------------- the item loops *)
  Lemma fix_shape ft b : ft_fixed ft = true -> ft <> TBool -> len b = cpp_size ft -> shape_item ft (IFix b).
  Proof. intros Hf Hb Hl. split; [exact Hf|]. destruct ft; try congruence; exact Hl. Qed.

  (* the Point/Rect item loop allocates nothing and consumes its items *)
  Lemma fix_items_loop_safe ft c k : ft_fixed ft = true -> ft <> TBool -> forall i n u acc, shape_items ft acc ->
    safe 0 (N.of_nat k) c (fun _ => (n - i) * cpp_size ft) 0 (shape_items ft) (fix_items_loop bs k i n u (cpp_size ft) acc).
  Proof.
    intros Hff Hfb. pose proof (cpp_size_pos ft Hff) as Hsz.
    induction k as [|k IH]; intros i n u acc Hacc r l; cbn [fix_items_loop]; destruct (N.leb_spec n i) as [Hd|Hd];
      try (apply post_ret; [replace (n - i) with 0 by lia; reflexivity | lia | exact Hacc]).
    - apply post_nofuel, N.le_0_l.
    - eapply post_bnd; [apply safe_with_limit, rd_bytes_safe | side..|].
      intros b r1 l1 Ha Hb. eapply post_weaken; [apply (IH (i + 1) n u) | side | side | | side | auto].
      + apply shape_items_snoc; [exact Hacc | apply fix_shape; assumption].
      + intro a. cbv beta. replace (n - i) with (n - (i + 1) + 1) by lia. rewrite N.mul_add_distr_r.
        generalize ((n - (i + 1)) * cpp_size ft). lia.
  Qed.

  (* strings cost at most their own bytes *)
  Lemma str_items_loop_safe c k : forall i n acc, shape_items TString acc ->
    safe 1 (N.of_nat k) c (fun _ => 4 * (n - i)) 0 (shape_items TString) (str_items_loop bs k i n acc).
  Proof.
    induction k as [|k IH]; intros i n acc Hacc r l; cbn [str_items_loop]; destruct (N.leb_spec n i) as [Hd|Hd];
      try (apply post_ret; [lia | lia | exact Hacc]).
    - apply post_nofuel, N.le_0_l.
    - eapply post_bnd; [apply rd_lp_string_safe | side..|].
      intros s r1 l1 Ha Hs. eapply post_weaken; [apply (IH (i + 1) n) | side.. | auto].
      apply shape_items_snoc; [exact Hacc | split; [reflexivity | exact Hs]].
  Qed.

  Lemma raw_items_loop_safe c k : forall i n acc, shape_items TRaw acc ->
    safe KA (N.of_nat k) c (fun _ => 0) 0 (shape_items TRaw) (raw_items_loop bs k i n acc).
  Proof.
    induction k as [|k IH]; intros i n acc Hacc r l; cbn [raw_items_loop]; destruct (N.leb_spec n i) as [Hd|Hd];
      try (apply post_ret; [lia | lia | exact Hacc]).
    - apply post_nofuel, N.le_0_l.
    - apply post_rd_checked; [side|]. intros H4 sz r1 l1 _ Ha1.
      apply post_get_avail. destruct (N.ltb_spec (avail r1) sz) as [Hs|Hs]; [apply post_err; side|].
      apply post_get_pos. apply post_alloc; intro l2. apply post_intro; intros Hr1 _.
      apply post_peek_opt; [destruct (rok_span r1 Hr1); lia|]. intros b l3.
      apply post_seek_rel; [exact Hs|]. intros r2 Ha2. apply post_alloc; intro l4.
      eapply post_weaken; [apply (IH (i + 1) n) | side.. | auto].
      apply shape_items_snoc; [exact Hacc | reflexivity].
  Qed.

  (* ---------------------------------------------------------------- one nesting level, given the next *)
  Section LevelSafe.
    Variable fx : fixes.
    Hypothesis Hfx1 : fx1 fx = true.
    Hypothesis Hfx14 : fx14 fx = true.
    Hypothesis Hfx15 : fx15 fx = true.
    Hypothesis Hfx16 : fx16 fx = true.
    Variable inner : N -> M msg.
    Variable lf : nat.
    (* a Message at level d may deepen the record to what its own bytes pay for; its callers have paid for the d levels above *)
    Hypothesis Hinner : forall d, safe KA (N.of_nat lf) (28 * d) (fun _ => 0) 0 shape_msg (inner d).

    Lemma msg_items_loop_safe k : (k <= lf)%nat -> forall d acc, shape_items TMessage acc ->
      safe KA (N.of_nat k) (28 * d + 24) (fun _ => 0) 0 (shape_items TMessage) (msg_items_loop bs inner k d acc).
    Proof.
      induction k as [|k IH]; intros Hk d acc Hacc r l; cbn [msg_items_loop]; apply post_get_avail;
        destruct (N.eqb_spec (avail r) 0) as [Hz|Hz]; try (apply post_ret; [lia | lia | exact Hacc]).
      - apply post_nofuel, N.le_0_l.
      - apply post_rd_checked; [side|]. intros H4 sz r1 l1 _ Ha1.
        apply post_get_avail. destruct (N.ltb_spec (avail r1) sz) as [Hs|Hs]; [apply post_err; side|].
        apply post_alloc; intro l2.
        eapply post_call; [apply safe_with_limit, (Hinner (d + 1)) | side..|].
        intros m r2 l3 Ha2 Hm. apply post_alloc; intro l4.
        eapply post_weaken; [apply (IH ltac:(lia) d) | side.. | auto].
        apply shape_items_snoc; [exact Hacc | split; [reflexivity | exact Hm]].
    Qed.

    (* MessageField::Unflatten calls SingleUnflatten only when GetNumItemsInFlattenedBuffer said 1, which for a
       sub-Message needs its 4-byte length word to be there *)
    Lemma unflat_single_safe ft d r l : (ft = TMessage -> 4 <= avail r) ->
      post KA (N.of_nat lf) (28 * d + 24) (fun _ => 0) 0 0 (shape_item ft) r l (unflat_single bs inner ft d r l).
    Proof.
      intro Hpre. unfold unflat_single.
      eapply post_bnd with (rho1 := KA) (P1 := fun _ => 0) (E1 := 0) (Q1 := shape_item ft); [| side | side |].
      2:{ intros i r1 l1 _ Hi. apply post_status; [side|]. intros _. apply post_ret; [reflexivity | side | exact Hi]. }
      destruct ft; try specialize (Hpre eq_refl);
        (* the fixed-size items other than bool: ReadBytes, for Point and Rect through ReadFlat *)
        try (eapply post_bnd; [first [apply rd_bytes_safe | apply safe_sub_reader, rd_bytes_safe] | side | side |];
             intros b r1 l1 _ Hlen; apply post_ret; [side | side | apply fix_shape; [reflexivity | discriminate | exact Hlen]]);
        try (apply post_err; side).
      - (* TBool *)
        apply post_rd_val; intros; (apply post_ret; [side | side | split; [reflexivity | destruct (_ =? 0); [left | right]; reflexivity]]).
      - (* TMessage: its declared size is what the field has left *)
        apply post_rd_val; [|side].
        intros _ sz r1 l1 _ Ha1. apply post_get_avail. destruct (N.eqb_spec sz (avail r1)) as [Es|Es]; [|apply post_err; side].
        cbn [negb]. apply post_get_pos. apply post_alloc; intro l2.
        eapply post_fresh; [apply (Hinner (d + 1)) | side..|].
        intros x l3 Hx. apply post_seek_to_end. intros r2 Ha2.
        destruct x as [m| | |]; try (apply post_err; side).
        apply post_ret; [side | side | split; [reflexivity | exact (Hx m eq_refl)]].
      - (* TString *)
        apply post_rd_val.
        + intros _ cnt r1 l1 _ Ha1. destruct (N.eqb_spec cnt 1); [|apply post_err; side]. cbn [negb].
          eapply post_bnd; [apply rd_lp_string_safe | side..|].
          intros s r2 l2 _ Hs. apply post_ret; [side | side | split; [reflexivity | exact Hs]].
        + intros. apply post_err; side.
      - (* TRaw: count, size, then all that is left *)
        apply post_rd_val; [|intros; apply post_err; side].
        intros _ cnt r1 l1 _ Ha1. destruct (N.eqb_spec cnt 1); [|apply post_err; side]. cbn [negb].
        (* the size word may have been read or not: the status check that follows the item tells *)
        apply post_rd_val; intros; apply post_get_avail; (destruct (_ =? avail _); [|apply post_err; side]); cbn [negb];
          apply post_get_pos; apply post_alloc; intro; apply post_intro; intros Hr0 _;
          (apply post_peek_opt; [destruct (rok_span _ Hr0); lia|]); intros;
          apply post_seek_to_end; intros; (apply post_ret; [side | side | reflexivity]).
    Qed.

    (* PrimitiveTypeDataArray: a whole number of items, allocated at once and paid for by reading them *)
    Lemma prim_array_safe ft (h : bytes -> items) (g : bytes -> M items) k c r l :
      0 < cpp_size ft -> (forall b r l, g b r l = ret (h b) r l) ->
      (forall b, len b = avail r / cpp_size ft * cpp_size ft -> shape_items ft (h b)) ->
      post KA k c (fun _ => 0) 0 0 (shape_items ft) r l
        ((nb <- get_avail ;; if negb (nb mod cpp_size ft =? 0) then err else
          alloc (nb / cpp_size ft * cpp_size ft) ;;; b <- rd_bytes bs (nb / cpp_size ft * cpp_size ft) ;; g b) r l).
    Proof.
      intros Hs Hg Hsh. apply post_get_avail.
      destruct (N.eqb_spec (avail r mod cpp_size ft) 0) as [Hm|Hm]; cbn [negb]; [|apply post_err; side].
      pose proof (div_exact _ _ Hs Hm) as Hq. set (q := avail r / cpp_size ft * cpp_size ft) in *. clearbody q.
      apply post_alloc; intro l1. eapply post_bnd; [apply rd_bytes_safe | side | side |].
      intros b r1 l2 _ Hb. rewrite Hg. apply post_ret; [side | side | apply Hsh; exact Hb].
    Qed.

    (* FixedSizeFlatObjectArray<Point|Rect>: the same, item by item *)
    Lemma flat_array_safe ft u d r l : ft = TPoint \/ ft = TRect -> u = cpp_size ft ->
      post KA (N.of_nat lf) (28 * d + 24) (fun _ => 0) 0 0 (shape_items ft) r l
        ((nb <- get_avail ;; if negb (nb mod u =? 0) then err else
          alloc (nb / u * u) ;;; its <- fix_items_loop bs lf 0 (nb / u) u (cpp_size ft) INil ;; status ;;; ret its) r l).
    Proof.
      intros Hft ->.
      assert (Hff : ft_fixed ft = true /\ ft <> TBool) by (destruct Hft as [-> | ->]; split; [reflexivity | discriminate | reflexivity | discriminate]).
      destruct Hff as [Hff Hfb]. pose proof (cpp_size_pos ft Hff) as Hs.
      apply post_get_avail.
      destruct (N.eqb_spec (avail r mod cpp_size ft) 0) as [Hm|Hm]; cbn [negb]; [|apply post_err; side].
      pose proof (div_exact _ _ Hs Hm) as Hq.
      apply post_alloc; intro l1.
      eapply post_call; [apply (fix_items_loop_safe ft (28 * d + 24) lf Hff Hfb 0 (avail r / cpp_size ft) (cpp_size ft) INil I) | side..|].
      intros its r1 l2 _ Hits. cbv beta. rewrite N.sub_0_r.
      set (q := avail r / cpp_size ft * cpp_size ft) in *. clearbody q.
      apply post_status; [side|]. intros _. apply post_ret; [side | side | exact Hits].
    Qed.

    Lemma unflat_array_safe ft d : ft <> TPointer -> ft <> TTag ->
      safe KA (N.of_nat lf) (28 * d + 24) (fun _ => 0) 0 (shape_items ft) (unflat_array bs fx inner lf ft d).
    Proof.
      intros Hp Ht r l. unfold unflat_array. rewrite Hfx15, Hfx1.
      assert (Hsplit : forall ft, ft_fixed ft = true -> ft <> TBool -> forall b,
                len b = avail r / cpp_size ft * cpp_size ft ->
                shape_items ft (split_items (N.to_nat (avail r / cpp_size ft)) (cpp_size ft) b)).
      { intros ft' Hf Hb b Hlen. apply split_items_shape; try assumption; [reflexivity|]. rewrite N2Nat.id. exact Hlen. }
      destruct ft; try congruence;
        try (eapply prim_array_safe; [reflexivity | intros; reflexivity | apply Hsplit; [reflexivity | discriminate]]);
        try (apply flat_array_safe; [auto | reflexivity]).
      - (* TBool *)
        apply (prim_array_safe TBool bool_items); [reflexivity | reflexivity | intros; apply bool_items_shape].
      - (* TMessage *)
        eapply post_call; [apply (msg_items_loop_safe lf (le_n lf) d INil I) | side..|].
        intros its r1 l1 _ Hits. apply post_status; [side|]. intros _. apply post_ret; [side | side | exact Hits].
      - (* TString: the count is bounded by the bytes left before the array is sized from it *)
        apply post_rd_checked; [side|]. intros _ n r1 l1 _ Ha1. apply post_get_avail.
        apply post_guard; [side|]. intro Hg. apply N.leb_le in Hg.
        pose proof (N.mul_div_le (avail r1) W ltac:(discriminate)) as Hdiv. set (q := avail r1 / W) in *. clearbody q. unfold W, c_SIZEOF_uint32 in Hdiv.
        apply post_alloc; intro l2.
        rewrite <- bnd_ret. eapply post_call; [apply (str_items_loop_safe (28 * d + 24 + W) lf 0 n INil I) | unfold c_SIZEOF_String; side..|].
        intros its r2 l3 _ Hits. unfold c_SIZEOF_String. apply post_ret; [side | side | exact Hits].
      - (* TRaw *)
        apply post_rd_checked; [side|]. intros _ n r1 l1 _ Ha1.
        eapply post_call; [apply (raw_items_loop_safe (28 * d + 24 + W) lf 0 n INil I) | side..|].
        intros its r2 l2 _ Hits. apply post_status; [side|]. intros _. apply post_ret; [side | side | exact Hits].
    Qed.

    Lemma ftype_ptr_tag tc : is_ptr_or_tag tc = false -> ftype_of_tc tc <> TPointer /\ ftype_of_tc tc <> TTag.
    Proof.
      unfold is_ptr_or_tag, ftype_of_tc. intro H.
      repeat match goal with |- context [if ?a =? ?b then _ else _] => destruct (N.eqb_spec a b) end;
        split; try discriminate; cbn in H; try discriminate.
    Qed.

    (* GetNumItemsInFlattenedBuffer looks at most at the first word and moves nothing; it says 1 for a sub-Message
       only when that word is there *)
    Lemma post_num_items {C} rho k c (P : C -> N) E D (Q : C -> Prop) ft (f : N -> M C) r l :
      (forall n l1, (ft = TMessage -> n = 1 -> 4 <= avail r) -> post rho k c P E D Q r l1 (f n r l1)) ->
      post rho k c P E D Q r l (bnd (num_items_in_buffer bs ft) f r l).
    Proof.
      intros H. apply post_intro; intros Hr Hl. destruct (rok_span r Hr) as [Hsp _].
      unfold num_items_in_buffer, bnd, get_avail, get_pos, ret.
      destruct (N.ltb_spec 0 (wire_size ft)) as [Hw|Hw].
      - apply H. intros ->. rewrite wire_size_msg in Hw. lia.
      - destruct (N.ltb_spec (avail r) W) as [Ha|Ha].
        + apply H. intros _ E1. discriminate.
        + assert (Hl1 : forall n, post rho k c P E D Q r l (f n r (touch (pos r) W l))).
          { intro n. apply post_touch with (o := pos r) (n := W); [unfold W, c_SIZEOF_uint32 in *; lia|]. apply H. intros; exact Ha. }
          unfold peek. destruct ft; apply Hl1.
    Qed.

    Lemma unflat_field_safe tc d :
      safe KA (N.of_nat lf) (28 * d + 24) (fun _ => 0) cost_arr (shape_repr (ftype_of_tc tc)) (unflat_field bs fx inner lf tc d).
    Proof.
      intros r l. unfold unflat_field. rewrite Hfx16. cbn [andb].
      destruct (is_ptr_or_tag tc) eqn:Ept; [apply post_err; side|].
      destruct (ftype_ptr_tag tc Ept) as [Hnp Hnt]. set (ft := ftype_of_tc tc) in *.
      apply post_num_items. intros n l1 Hn.
      destruct (N.eqb_spec n 1) as [E1|E1].
      - eapply post_bnd; [apply (unflat_single_safe ft d r l1); intro; apply Hn; assumption | side | side |].
        intros i r1 l2 _ Hi. apply post_ret; [side | side | exact Hi].
      - apply post_alloc; intro l2.
        eapply post_call; [apply safe_sub_reader, (unflat_array_safe ft d Hnp Hnt) | side..|].
        intros its r1 l3 _ Hits. apply post_ret; [side | side | exact Hits].
    Qed.

    Lemma entries_loop_safe k : (k <= lf)%nat -> forall i n pend d acc, pend <= tbl_default -> shape_fields acc ->
      safe KA (N.of_nat k) (28 * d + 12) (fun _ => 0) 0 shape_fields (entries_loop bs fx inner lf k i n pend d acc).
    Proof.
      induction k as [|k IH]; intros Hk i n pend d acc Hpend Hacc r l; cbn [entries_loop]; destruct (N.leb_spec n i) as [Hd|Hd];
        try (apply post_ret; [lia | lia | exact Hacc]).
      - apply post_nofuel, N.le_0_l.
      - eapply post_bnd; [apply rd_lp_string_safe | side..|].
        intros name r1 l1 _ Hname. pose proof (str_cost_le (len name)) as Hsc.
        (* DataUnflattenerReadLimiter(unflat, eLength) around unflat.ReadFlat(field) *)
        assert (Hwin : forall tc elen, safe KA (N.of_nat lf) (28 * d + 24) (fun _ => 0) cost_arr (shape_repr (ftype_of_tc tc))
                         (with_limit elen (sub_reader NOLIM (unflat_field bs fx inner lf tc d))))
          by (intros; apply safe_with_limit, safe_sub_reader, unflat_field_safe).
        apply post_rd_val.
        + intros _ tc r2 l2 Htc _. apply post_rd_checked; [side|]. intros _ elen r3 l3 _ _.
            destruct (flookup name acc) as [[tc' rp']|] eqn:Efl.
            -- destruct ((tc =? c_B_ANY_TYPE) || (tc =? tc')); [|apply post_err; side].
               eapply post_call; [apply Hwin | side..|].
               intros rp r4 l4 _ Hrp. eapply post_weaken; [apply (IH ltac:(lia) (i + 1) n pend d) | side.. | auto]; [exact Hpend|].
               apply shape_fields_set; [exact Hacc | intros t2 r2' E2; rewrite Efl in E2; congruence | exact Hrp].
            -- apply post_alloc; intro l4.
               assert (Hal : (if fields_len acc =? 0 then pend * cost_entry else 0) <= 476)      (* tbl_default * cost_entry *)
                 by (destruct (fields_len acc =? 0); revert Hpend; side).
               set (al := if fields_len acc =? 0 then pend * cost_entry else 0) in *. clearbody al.
               set (sc := str_cost (len name)) in *. clearbody sc.
               eapply post_call; [apply Hwin | side..|].
               intros rp r4 l5 _ Hrp. eapply post_weaken; [apply (IH ltac:(lia) (i + 1) n pend d) | side.. | auto]; [exact Hpend|].
               apply shape_fields_snoc; [exact Hacc | exact Hname | exact Htc | exact Hrp].
        + intros H4 r2 Ha2 Hb2. apply post_rd_checked; [side | revert H4; side].
    Qed.

    Lemma msg_level_safe d : safe KA (N.of_nat (S lf)) (28 * d) (fun _ => 0) 0 shape_msg (msg_level bs fx inner lf d).
    Proof.
      intros r l. unfold msg_level. apply post_enter; [lia|]. intro l0.
      apply post_rd_val.
      - intros _ ver r1 l1 _ _.
        destruct (negb ((c_OLDEST_SUPPORTED_PROTOCOL_VERSION <=? ver) && (ver <=? c_CURRENT_PROTOCOL_VERSION))); [apply post_err; side|].
        apply post_rd_val.
        + intros _ what r2 l2 Hwhat _. apply post_rd_checked; [side|]. intros _ n r3 l3 _ _. apply post_get_avail.
            destruct (N.ltb_spec (avail r3 / (3 * W)) n); [apply post_err; side|].
            eapply post_call; [apply (entries_loop_safe lf (le_n lf) 0 n _ d FNil); [rewrite Hfx14; lia | exact I] | side..|].
            intros fs r4 l4 _ Hfs. apply post_status; [side|]. intros _.
            apply post_ret; [side | side | split; [exact Hwhat | exact Hfs]].
        + intros H4 r2 Ha2 Hb2. apply post_rd_checked; [side | revert H4; side].
      - intros H4 r1 Ha1 Hb1. apply post_err; side.
    Qed.
  End LevelSafe.

  (* ---------------------------------------------------------------- Message::Unflatten, every nesting depth *)
  Lemma unflat_msg_safe fx : fx1 fx = true -> fx14 fx = true -> fx15 fx = true -> fx16 fx = true -> forall fuel d,
    safe KA (N.of_nat fuel) (28 * d) (fun _ => 0) 0 shape_msg (unflat_msg bs fx fuel d).
  Proof.
    intros H1 H14 H15 H16. induction fuel as [|f IH]; intro d; cbn [unflat_msg].
    - intros r l. apply post_nofuel, N.le_0_l.
    - apply msg_level_safe; assumption.
  Qed.
End Safety.

(* ------------------------------------------------------------------ the theorems about Message::UnflattenFromBytes *)
Definition fits (bs : bytes) : Prop := len bs < 2147483648.

(* Message::UnflattenFromBytes(bs, |bs|) on the repaired code: the reader covers the buffer, the fuel exceeds it *)
Lemma unflatten_facts bs : fits bs ->
  let y := unflatten_i bs fixed in
  Forall (in_bounds (len bs)) (accesses y) /\ result_of y <> Fuel /\ result_of y <> Crash /\ ub_events y = 0 /\
  28 * depth_reached y <= len bs /\ consumed y <= len bs /\ allocated y <= KA * len bs /\
  (forall m, result_of y = Ok m -> shape_msg m).
Proof.
  intros Hb y. subst y. unfold unflatten_i, accesses, result_of, ub_events, depth_reached, consumed, allocated, log_of, reader_of.
  assert (Hr : rok bs (reader0 bs)) by (unfold rok, reader0; cbn [r_base r_rd r_max]; lia).
  pose proof (unflat_msg_safe bs Hb fixed eq_refl eq_refl eq_refl eq_refl (S (length bs)) 0 _ log0 Hr (Forall_nil _)) as H.
  unfold reach in H. rewrite (avail_ok bs Hb _ Hr) in H.
  destruct (unflat_msg bs fixed (S (length bs)) 0 (reader0 bs) log0) as [[x r] l]. cbn [fst snd].
  destruct H as (([_ R2] & (_ & F2 & _) & Hl & Hub & Hdp) & Hx). cbn [reader0 r_rd r_max log0 l_ub l_dp l_al] in *.
  rewrite N.sub_0_r in *. unfold KA in *.
  split; [exact Hl|]. rewrite len_nat in *.
  destruct x as [m| | |]; repeat split; try discriminate; try lia; try contradiction.
  intros m' E. injection E as <-. apply Hx.
Qed.

Theorem parse_in_bounds_proof : forall bs, fits bs ->
  Forall (in_bounds (len bs)) (accesses (unflatten_i bs fixed)).
Proof. intros bs Hb. apply (unflatten_facts bs Hb). Qed.

Theorem parse_fuel_proof : forall bs, fits bs -> result_of (unflatten_i bs fixed) <> Fuel.
Proof. intros bs Hb. apply (unflatten_facts bs Hb). Qed.

Theorem parse_no_abort_proof : forall bs, fits bs ->
  result_of (unflatten_i bs fixed) <> Crash /\ ub_events (unflatten_i bs fixed) = 0.
Proof. intros bs Hb. split; apply (unflatten_facts bs Hb). Qed.

Theorem parse_depth_proof : forall bs, fits bs -> 28 * depth_reached (unflatten_i bs fixed) <= len bs.
Proof. intros bs Hb. apply (unflatten_facts bs Hb). Qed.

Theorem parse_consumed_proof : forall bs, fits bs -> consumed (unflatten_i bs fixed) <= len bs.
Proof. intros bs Hb. apply (unflatten_facts bs Hb). Qed.

(* at most KA model-bytes per byte of the buffer, whatever the outcome ([post] has the sharper KA per byte consumed
   for a parse that succeeds) *)
Theorem parse_alloc_linear_proof : forall bs, fits bs -> allocated (unflatten_i bs fixed) <= KA * len bs.
Proof. intros bs Hb. apply (unflatten_facts bs Hb). Qed.

(* totality: the parser ends with a Message of the right shape or with an error status -- nothing else *)
Theorem parse_total_proof : forall bs, fits bs ->
  (exists m, result_of (unflatten_i bs fixed) = Ok m /\ shape_msg m) \/ result_of (unflatten_i bs fixed) = Err.
Proof.
  intros bs Hb. destruct (unflatten_facts bs Hb) as (_ & Hf & Hc & _ & _ & _ & _ & Hq).
  destruct (result_of (unflatten_i bs fixed)) as [m| | |]; [left; exists m; auto | right; reflexivity | congruence | congruence].
Qed.
