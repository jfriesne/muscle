(* Msg/MsgReprProofs.v -- what the round trip preserves: content, bytes (re-serialisation), size, checksum. *)
From Coq Require Import List NArith Bool Strings.Byte Lia.
From Muscle Require Import Msg.MsgDefs Msg.MsgModel Msg.MsgBytesProofs Msg.MsgRoundTrip.
Import ListNotations.
Local Open Scope N_scope.

(* ------------------------------------------------------------------ norm keeps the content *)

Lemma norm_content_all :
  (forall i, content_item (norm_item i) = content_item i) /\
  (forall l, content_items (norm_items l) = content_items l) /\
  (forall r, content_repr (norm_repr r) = content_repr r) /\
  (forall fs, content_fields (norm_fields fs) = content_fields fs) /\
  (forall m, content_msg (norm_msg m) = content_msg m).
Proof.
  apply msg_mutind; try reflexivity.
  - (* IMsg *) intros m IH. cbn [norm_item content_item]. rewrite IH. reflexivity.
  - (* ICons *) intros i IHi t IHt. cbn [norm_items content_items]. rewrite IHi, IHt. reflexivity.
  - (* RInline *) intros i IH. cbn [norm_repr content_repr]. rewrite IH. reflexivity.
  - (* RArray *) intros l IH. destruct l as [|i [|j t]]; cbn [norm_repr content_repr].
    + reflexivity.
    + cbn [norm_items content_items] in IH. injection IH as IH. cbn [content_items]. rewrite IH. reflexivity.
    + rewrite IH. reflexivity.
  - (* FCons *) intros n tc r IHr t IHt. cbn [norm_fields content_fields]. rewrite IHr, IHt. reflexivity.
  - (* Msg *) intros w fs IH. cbn [norm_msg content_msg]. rewrite IH. reflexivity.
Qed.

(* the parsed Message has the content of the original minus its non-flattenable fields *)
Theorem rt_content (m : msg) : content_msg (rt m) = content_msg (strip_msg m).
Proof. unfold rt. apply norm_content_all. Qed.

(* ------------------------------------------------------------------ norm keeps bytes and sizes *)

Lemma norm_flat_all :
  (forall i ft, ft_flattenable ft = true -> wf_item ft i ->
     size_single ft (norm_item i) = size_single ft i /\ size_elem ft (norm_item i) = size_elem ft i /\
     flat_single ft (norm_item i) = flat_single ft i /\ flat_elem ft (norm_item i) = flat_elem ft i) /\
  (forall l ft, ft_flattenable ft = true -> wf_items ft l ->
     size_items ft (norm_items l) = size_items ft l /\ items_len (norm_items l) = items_len l /\
     flat_items ft (norm_items l) = flat_items ft l /\
     all_items (fun i => size_single ft (norm_item i) = size_single ft i /\
                         flat_single ft (norm_item i) = flat_single ft i) l) /\
  (forall r ft, ft_flattenable ft = true -> wf_repr ft r ->
     size_repr ft (norm_repr r) = size_repr ft r /\ flat_repr ft (norm_repr r) = flat_repr ft r) /\
  (forall fs, wf_fields fs ->
     size_fields (norm_fields fs) = size_fields fs /\ count_flat (norm_fields fs) = count_flat fs /\
     flat_fields (norm_fields fs) = flat_fields fs) /\
  (forall m, wf_msg m -> size_msg (norm_msg m) = size_msg m /\ flat_msg (norm_msg m) = flat_msg m).
Proof.
  apply msg_mutind; try (intros; repeat split; reflexivity).
  - (* IMsg *) intros m IH ft Hf Hw. destruct ft; try discriminate Hf; cbn [wf_item] in Hw; try contradiction.
    destruct (IH Hw) as [Es Ef]. cbn [norm_item size_single size_elem flat_single flat_elem].
    rewrite Es, Ef. repeat split; reflexivity.
  - (* ICons *) intros i IHi t IHt ft Hf [Hi Ht].
    destruct (IHi ft Hf Hi) as (E0 & E1 & E0' & E2). destruct (IHt ft Hf Ht) as (E3 & E4 & E5 & E6).
    cbn [norm_items size_items items_len flat_items all_items]. rewrite E1, E2, E3, E4, E5. repeat split; assumption.
  - (* RInline *) intros i IH ft Hf Hw. cbn [wf_repr] in Hw. destruct (IH ft Hf Hw) as (E1 & _ & E2 & _).
    cbn [norm_repr size_repr flat_repr]. split; assumption.
  - (* RArray *) intros l IH ft Hf Hw. cbn [wf_repr] in Hw. destruct (IH ft Hf Hw) as (E1 & E2 & E3 & E4).
    destruct l as [|i [|j t]].
    + split; reflexivity.
    + (* one item: norm turns the array into an inline item; both writers produce the same bytes *)
      destruct Hw as [Hi _]. destruct E4 as [[E5 E6] _].
      cbn [norm_repr].
      change (size_repr ft (RInline (norm_item i))) with (size_single ft (norm_item i)).
      change (flat_repr ft (RInline (norm_item i))) with (flat_single ft (norm_item i)).
      rewrite E5, E6, size_repr_singleton, flat_repr_singleton by assumption. split; reflexivity.
    + cbn [norm_repr]. set (l := ICons i (ICons j t)) in *.
      destruct ft; try discriminate Hf; cbn [size_repr flat_repr]; rewrite ?E1, ?E2, ?E3; split; reflexivity.
  - (* FCons *) intros n tc r IHr t IHt (Hn & Htc & Hr & Ht). destruct (IHt Ht) as (E1 & E2 & E3).
    cbn [norm_fields size_fields count_flat flat_fields]. rewrite E1, E2, E3.
    destruct (flattenable tc) eqn:Fl; [|repeat split; reflexivity].
    destruct (IHr _ Fl Hr) as [E4 E5]. rewrite E4, E5. repeat split; reflexivity.
  - (* Msg *) intros w fs IH (Hw & Hnd & Hfs). destruct (IH Hfs) as (E1 & E2 & E3).
    cbn [norm_msg size_msg flat_msg]. rewrite E1, E2, E3. split; reflexivity.
Qed.

(* re-serialising the parsed Message reproduces the original bytes, and its advertised size is the same *)
Lemma rt_flat (m : msg) : wf_msg m -> size_msg (rt m) = size_msg m /\ flat_msg (rt m) = flat_msg m.
Proof.
  intro Hw. unfold rt.
  destruct (proj2 (proj2 (proj2 (proj2 norm_flat_all))) (strip_msg m) (strip_wf m Hw)) as [-> ->].
  apply strip_flat_all.
Qed.

Theorem reflatten (m : msg) : wf_msg m -> flatten (rt m) = flatten m.
Proof. apply rt_flat. Qed.

Theorem resize (m : msg) : wf_msg m -> flattened_size (rt m) = flattened_size m.
Proof. apply rt_flat. Qed.

(* ------------------------------------------------------------------ checksum *)

Section ChecksumProofs.
  Variable hash : bytes -> N.

  (* unfolding equations of the mutual checksum functions (cbn does not refold them) *)
  Lemma chk_repr_inline cnf ft tc i : chk_repr hash cnf ft tc (RInline i) = u32 (tc + 1 + chk_item hash cnf ft i).
  Proof. reflexivity. Qed.
  Lemma chk_repr_array cnf ft tc l : chk_repr hash cnf ft tc (RArray l) = u32 (tc + items_len l + chk_items hash cnf ft 1 l).
  Proof. reflexivity. Qed.
  Lemma chk_items_cons cnf ft k i t : chk_items hash cnf ft k (ICons i t) = k * chk_item hash cnf ft i + chk_items hash cnf ft (k + 1) t.
  Proof. reflexivity. Qed.
  Lemma chk_items_nil cnf ft k : chk_items hash cnf ft k INil = 0.
  Proof. reflexivity. Qed.
  Lemma chk_fields_cons cnf n tc r t :
    chk_fields hash cnf (FCons n tc r t) =
    (if cnf || flattenable tc then
       u32 (hash n) + (if u32 (hash n) =? 0 then 1 else 0) + u32 (hash n) * chk_repr hash cnf (ftype_of_tc tc) tc r
     else 0) + chk_fields hash cnf t.
  Proof. reflexivity. Qed.
  Lemma chk_msg_eq cnf w fs : chk_msg hash cnf (Msg w fs) = u32 (w + chk_fields hash cnf fs).
  Proof. reflexivity. Qed.

  Lemma chk_norm_all (cnf : bool) :
    (forall i ft, chk_item hash cnf ft (norm_item i) = chk_item hash cnf ft i) /\
    (forall l ft k, chk_items hash cnf ft k (norm_items l) = chk_items hash cnf ft k l /\ items_len (norm_items l) = items_len l) /\
    (forall r ft tc, chk_repr hash cnf ft tc (norm_repr r) = chk_repr hash cnf ft tc r) /\
    (forall fs, chk_fields hash cnf (norm_fields fs) = chk_fields hash cnf fs) /\
    (forall m, chk_msg hash cnf (norm_msg m) = chk_msg hash cnf m).
  Proof.
    apply msg_mutind; try reflexivity; try (split; reflexivity).
    - (* IMsg *) intros m IH ft. destruct ft; try reflexivity.
      change (chk_msg hash cnf (norm_msg m) = chk_msg hash cnf m). exact IH.
    - (* ICons *) intros i IHi t IHt ft k. cbn [norm_items items_len]. rewrite !chk_items_cons, IHi.
      destruct (IHt ft (k + 1)) as [-> ->]. split; reflexivity.
    - (* RInline *) intros i IH ft tc. cbn [norm_repr]. rewrite !chk_repr_inline, IH. reflexivity.
    - (* RArray *) intros l IH ft tc. destruct l as [|i [|j t]].
      + reflexivity.
      + (* inline form (tc + 1 + c) vs array form (tc + 1 + 1*c) *)
        destruct (IH ft 1) as [E _]. cbn [norm_items] in E. rewrite !chk_items_cons, !chk_items_nil in E.
        cbn [norm_repr]. rewrite chk_repr_inline, chk_repr_array, chk_items_cons, chk_items_nil.
        cbn [items_len]. f_equal. lia.
      + cbn [norm_repr]. rewrite !chk_repr_array. destruct (IH ft 1) as [-> ->]. reflexivity.
    - (* FCons *) intros n tc r IHr t IHt. cbn [norm_fields]. rewrite !chk_fields_cons, IHr, IHt. reflexivity.
    - (* Msg *) intros w fs IH. cbn [norm_msg]. rewrite !chk_msg_eq, IH. reflexivity.
  Qed.

  (* with countNonFlattenableFields = false (the default) the fields that are not written do not count *)
  Lemma chk_strip_all :
    (forall i ft, chk_item hash false ft (strip_item i) = chk_item hash false ft i) /\
    (forall l ft k, chk_items hash false ft k (strip_items l) = chk_items hash false ft k l) /\
    (forall r ft tc, chk_repr hash false ft tc (strip_repr r) = chk_repr hash false ft tc r) /\
    (forall fs, chk_fields hash false (strip_fields fs) = chk_fields hash false fs) /\
    (forall m, chk_msg hash false (strip_msg m) = chk_msg hash false m).
  Proof.
    apply msg_mutind; try reflexivity.
    - (* IMsg *) intros m IH ft. destruct ft; try reflexivity.
      change (chk_msg hash false (strip_msg m) = chk_msg hash false m). exact IH.
    - (* ICons *) intros i IHi t IHt ft k. cbn [strip_items]. rewrite !chk_items_cons, IHi, IHt. reflexivity.
    - (* RInline *) intros i IH ft tc. cbn [strip_repr]. rewrite !chk_repr_inline, IH. reflexivity.
    - (* RArray *) intros l IH ft tc. cbn [strip_repr]. rewrite !chk_repr_array, IH, items_len_strip. reflexivity.
    - (* FCons *) intros n tc r IHr t IHt. cbn [strip_fields].
      destruct (flattenable tc) eqn:Fl; rewrite !chk_fields_cons, ?Fl; cbn [orb]; rewrite ?IHr, IHt; reflexivity.
    - (* Msg *) intros w fs IH. cbn [strip_msg]. rewrite !chk_msg_eq, IH. reflexivity.
  Qed.

  Theorem checksum_roundtrip (m : msg) : chk_msg hash false (rt m) = chk_msg hash false m.
  Proof. unfold rt. rewrite (proj2 (proj2 (proj2 (proj2 (chk_norm_all false))))). apply chk_strip_all. Qed.

  Theorem checksum_roundtrip_all (m : msg) : chk_msg hash true (rt m) = chk_msg hash true (strip_msg m).
  Proof. unfold rt. apply chk_norm_all. Qed.
End ChecksumProofs.
