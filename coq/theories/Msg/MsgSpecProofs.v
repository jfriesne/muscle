(* Msg/MsgSpecProofs.v -- the code-shaped model of Message::Flatten writes exactly the documented layout
   (C08), hence the documented layout determines the content and is accepted by the model of the parser;
   the translated constants and the copies of them in the C and Python ports agree; the stream frame. *)
From Coq Require Import List NArith Bool Strings.Byte Lia.
From Muscle Require Import Gen.Consts Msg.MsgDefs Msg.MsgModel Msg.MsgSpec Msg.MsgBytesProofs Msg.MsgSizeProofs
  Msg.MsgRoundTrip Msg.MsgReprProofs.
Import ListNotations.
Local Open Scope N_scope.

(* ------------------------------------------------------------------ the translated constants are the documented ones *)

Lemma protocol_constants_documented :
  c_CURRENT_PROTOCOL_VERSION = s_PM00 /\ c_OLDEST_SUPPORTED_PROTOCOL_VERSION = s_PM00 /\
  c_MUSCLE_MESSAGE_ENCODING_DEFAULT = s_Enc0.
Proof. repeat split; reflexivity. Qed.

Lemma type_codes_documented :
  c_B_BOOL_TYPE = s_BOOL /\ c_B_DOUBLE_TYPE = s_DBLE /\ c_B_FLOAT_TYPE = s_FLOT /\ c_B_INT64_TYPE = s_LLNG /\
  c_B_INT32_TYPE = s_LONG /\ c_B_INT16_TYPE = s_SHRT /\ c_B_INT8_TYPE = s_BYTE /\ c_B_POINT_TYPE = s_BPNT /\
  c_B_RECT_TYPE = s_RECT /\ c_B_POINTER_TYPE = s_PNTR /\ c_B_TAG_TYPE = s_MTAG /\ c_B_MESSAGE_TYPE = s_MSGG /\
  c_B_STRING_TYPE = s_CSTR.
Proof. repeat split; reflexivity. Qed.

Definition class_of_ft (ft : ftype) : sclass :=
  match ft with
  | TBool => SFixed 1 | TDouble => SFixed 8 | TFloat => SFixed 4 | TInt64 => SFixed 8 | TInt32 => SFixed 4
  | TInt16 => SFixed 2 | TInt8 => SFixed 1 | TPoint => SFixed 8 | TRect => SFixed 16
  | TPointer | TTag => SNone | TMessage => SMessage | TString => SString | TRaw => SOther
  end.

(* the type switch of Message.cpp (over the translated type codes) classifies exactly as documented *)
Lemma spec_class_ft (tc : N) : spec_class tc = class_of_ft (ftype_of_tc tc).
Proof.
  unfold spec_class, ftype_of_tc.
  unfold s_BOOL, s_DBLE, s_FLOT, s_LLNG, s_LONG, s_SHRT, s_BYTE, s_BPNT, s_RECT, s_PNTR, s_MTAG, s_MSGG, s_CSTR.
  unfold c_B_BOOL_TYPE, c_B_DOUBLE_TYPE, c_B_FLOAT_TYPE, c_B_INT64_TYPE, c_B_INT32_TYPE, c_B_INT16_TYPE, c_B_INT8_TYPE,
    c_B_POINT_TYPE, c_B_RECT_TYPE, c_B_POINTER_TYPE, c_B_TAG_TYPE, c_B_MESSAGE_TYPE, c_B_STRING_TYPE.
  repeat (destruct (tc =? _); [reflexivity|]). reflexivity.
Qed.

(* the documented item widths are the sizes the C++ types have *)
Lemma class_width_ok (ft : ftype) : ft_fixed ft = true -> class_of_ft ft = SFixed (cpp_size ft).
Proof. destruct ft; intro H; try discriminate H; reflexivity. Qed.

Lemma class_none_iff (ft : ftype) : ft_flattenable ft = false <-> class_of_ft ft = SNone.
Proof. destruct ft; cbn; split; intro H; try reflexivity; discriminate H. Qed.

(* ------------------------------------------------------------------ flatten is the documented layout *)

Lemma flatten_is_spec_all :
  (forall i ft, ft_flattenable ft = true -> wf_item ft i ->
     flat_elem ft i = spec_item (class_of_ft ft) i /\
     flat_single ft i = spec_count_word (class_of_ft ft) 1 ++ spec_item (class_of_ft ft) i) /\
  (forall l ft, ft_flattenable ft = true -> wf_items ft l -> flat_items ft l = spec_items (class_of_ft ft) l) /\
  (forall r ft, ft_flattenable ft = true -> wf_repr ft r -> flat_repr ft r = spec_payload (class_of_ft ft) r) /\
  (forall fs, wf_fields fs -> flat_fields fs = spec_fields fs /\ count_flat fs = spec_count fs) /\
  (forall m, wf_msg m -> flat_msg m = spec_msg m).
Proof.
  apply msg_mutind.
  - (* IFix *)
    intros bs ft Hf Hw. destruct ft; try discriminate Hf; cbn [wf_item] in Hw; try contradiction;
      try (split; reflexivity).
    destruct Hw as [-> | ->]; split; reflexivity.
  - (* IStr *)
    intros s ft Hf Hw. destruct ft; try discriminate Hf; cbn [wf_item] in Hw; try contradiction.
    cbn [flat_elem flat_single class_of_ft spec_item spec_count_word]. unfold with_len.
    rewrite str_flat_size_len. split; reflexivity.
  - (* IRaw *)
    intros b ft Hf Hw. destruct ft; try discriminate Hf; cbn [wf_item] in Hw; try contradiction.
    cbn [flat_elem flat_single class_of_ft spec_item spec_count_word]. unfold with_len. split; reflexivity.
  - (* IMsg *)
    intros m IH ft Hf Hw. destruct ft; try discriminate Hf; cbn [wf_item] in Hw; try contradiction.
    pose proof (flat_msg_len m Hw) as Hl.
    cbn [flat_elem flat_single class_of_ft spec_item spec_count_word]. unfold with_len.
    rewrite <- (IH Hw), Hl. split; reflexivity.
  - (* IOpaque *)
    intros id ft Hf Hw. destruct ft; try discriminate Hf; cbn [wf_item] in Hw; contradiction.
  - reflexivity.
  - (* ICons *) intros i IHi t IHt ft Hf [Hi Ht]. cbn [flat_items spec_items].
    rewrite (proj1 (IHi ft Hf Hi)), (IHt ft Hf Ht). reflexivity.
  - (* RInline *) intros i IH ft Hf Hw. cbn [flat_repr spec_payload]. apply (IH ft Hf Hw).
  - (* RArray *) intros l IH ft Hf Hw. cbn [wf_repr] in Hw. specialize (IH ft Hf Hw).
    destruct ft; try discriminate Hf; cbn [flat_repr spec_payload class_of_ft spec_count_word] in *;
      rewrite IH; reflexivity.
  - split; reflexivity.
  - (* FCons *) intros n tc r IHr t IHt (Hn & Htc & Hr & Ht). destruct (IHt Ht) as [E1 E2].
    cbn [flat_fields spec_fields count_flat spec_count]. rewrite E1, E2, spec_class_ft.
    unfold flattenable.
    destruct (ft_flattenable (ftype_of_tc tc)) eqn:Fl.
    + pose proof (flat_repr_len _ r Fl Hr) as Hl.
      rewrite <- Hl, (IHr _ Fl Hr).
      unfold with_len. rewrite str_flat_size_len.
      destruct (ftype_of_tc tc); try discriminate Fl; cbn [class_of_ft]; rewrite <- !app_assoc; split; reflexivity.
    + apply class_none_iff in Fl. rewrite Fl. split; reflexivity.
  - (* Msg *) intros w fs IH (Hw & Hnd & Hfs). destruct (IH Hfs) as [E1 E2].
    cbn [flat_msg spec_msg]. rewrite E1, E2. reflexivity.
Qed.

Theorem flatten_is_spec (m : msg) : wf_msg m -> flatten m = spec_msg m.
Proof. apply flatten_is_spec_all. Qed.

(* ------------------------------------------------------------------ the layout does not depend on the representation *)

Lemma spec_content_all :
  (forall i c, spec_item c (content_item i) = spec_item c i) /\
  (forall l c, spec_items c (content_items l) = spec_items c l /\ items_len (content_items l) = items_len l) /\
  (forall r c, spec_payload c (content_repr r) = spec_payload c r) /\
  (forall fs, spec_fields (content_fields fs) = spec_fields fs /\ spec_count (content_fields fs) = spec_count fs) /\
  (forall m, spec_msg (content_msg m) = spec_msg m).
Proof.
  apply msg_mutind; try reflexivity; try (split; reflexivity).
  - (* IMsg *) intros m IH c. cbn [content_item]. destruct c; cbn [spec_item]; rewrite ?IH; reflexivity.
  - (* ICons *) intros i IHi t IHt c. cbn [content_items spec_items items_len]. rewrite IHi.
    destruct (IHt c) as [-> ->]. split; reflexivity.
  - (* RInline *)
    intros i IH c. cbn [content_repr spec_payload spec_items items_len]. rewrite IH, app_nil_r. reflexivity.
  - (* RArray *) intros l IH c. cbn [content_repr spec_payload]. destruct (IH c) as [-> ->]. reflexivity.
  - (* FCons *) intros n tc r IHr t [E1 E2]. cbn [content_fields spec_fields spec_count]. rewrite E1, E2.
    destruct (spec_class tc); rewrite ?IHr; split; reflexivity.
  - (* Msg *) intros w fs [E1 E2]. cbn [content_msg spec_msg]. rewrite E1, E2. reflexivity.
Qed.

Theorem spec_repr_indep (m : msg) : spec_msg (content_msg m) = spec_msg m.
Proof. apply spec_content_all. Qed.

(* ------------------------------------------------------------------ consequences *)

(* the parser model accepts the documented layout and recovers the Message *)
Theorem spec_roundtrip (m : msg) : wf m -> unflatten (spec_msg m) = Ok (rt m).
Proof. intros [Hw Hs]. rewrite <- flatten_is_spec by exact Hw. apply unflatten_flatten. split; assumption. Qed.

(* two well-formed Messages with the same bytes have the same content (of their flattenable parts) *)
Theorem spec_injective (m n : msg) :
  wf m -> wf n -> spec_msg m = spec_msg n -> content_msg (strip_msg m) = content_msg (strip_msg n).
Proof.
  intros Hm Hn E. pose proof (spec_roundtrip m Hm) as H1. pose proof (spec_roundtrip n Hn) as H2.
  rewrite E, H2 in H1. injection H1 as H1. rewrite <- !rt_content, H1. reflexivity.
Qed.

(* the stream frame: 8-byte header of body length and encoding id, then the body *)
Theorem unframe_frame (enc : N) (body rest : bytes) :
  len body < two32 -> enc < two32 -> unframe (frame enc body ++ rest) = Some (enc, body, rest).
Proof.
  intros Hb He. unfold frame.
  destruct (le32_cons4 (len body)) as (a & b & c & d & E1). destruct (le32_cons4 enc) as (e & f & g & h & E2).
  rewrite E1, E2. cbn [app unframe]. rewrite <- E1, <- E2, !le_dec_le32 by assumption.
  rewrite len_app. destruct (len body <=? len body + len rest) eqn:L; [|apply N.leb_gt in L; lia].
  rewrite takeN_app_exact, dropN_app_exact. reflexivity.
Qed.

(* ------------------------------------------------------------------ the independent copies of the protocol constants agree *)

(* lang/c/minimessage, lang/c/micromessage, their gateways and lang/python3 each carry their own copy of the
   protocol constants; all are translated from the current sources and must equal the C++ library's *)
Lemma protocol_constant_copies_agree :
  c_mini_CURRENT_PROTOCOL_VERSION = c_CURRENT_PROTOCOL_VERSION /\
  c_mini_OLDEST_SUPPORTED_PROTOCOL_VERSION = c_OLDEST_SUPPORTED_PROTOCOL_VERSION /\
  c_micro_CURRENT_PROTOCOL_VERSION = c_CURRENT_PROTOCOL_VERSION /\
  c_micro_OLDEST_SUPPORTED_PROTOCOL_VERSION = c_OLDEST_SUPPORTED_PROTOCOL_VERSION /\
  c_py_CURRENT_PROTOCOL_VERSION = c_CURRENT_PROTOCOL_VERSION /\
  c_minigw_ENCODING_DEFAULT = c_MUSCLE_MESSAGE_ENCODING_DEFAULT /\
  c_microgw_ENCODING_DEFAULT = c_MUSCLE_MESSAGE_ENCODING_DEFAULT /\
  c_py_ENCODING_DEFAULT = c_MUSCLE_MESSAGE_ENCODING_DEFAULT.
Proof. repeat split; reflexivity. Qed.

Lemma python_type_codes_agree :
  c_py_B_BOOL_TYPE = c_B_BOOL_TYPE /\ c_py_B_DOUBLE_TYPE = c_B_DOUBLE_TYPE /\ c_py_B_FLOAT_TYPE = c_B_FLOAT_TYPE /\
  c_py_B_INT64_TYPE = c_B_INT64_TYPE /\ c_py_B_INT32_TYPE = c_B_INT32_TYPE /\ c_py_B_INT16_TYPE = c_B_INT16_TYPE /\
  c_py_B_INT8_TYPE = c_B_INT8_TYPE /\ c_py_B_MESSAGE_TYPE = c_B_MESSAGE_TYPE /\ c_py_B_POINTER_TYPE = c_B_POINTER_TYPE /\
  c_py_B_POINT_TYPE = c_B_POINT_TYPE /\ c_py_B_RECT_TYPE = c_B_RECT_TYPE /\ c_py_B_STRING_TYPE = c_B_STRING_TYPE /\
  c_py_B_RAW_TYPE = c_B_RAW_TYPE /\ c_py_B_ANY_TYPE = c_B_ANY_TYPE.
Proof. repeat split; reflexivity. Qed.
