(* Msg/TmplMergeProofs.v -- the templated codec for ANY template/payload pair: the bytes TemplatedFlatten(t) makes
   of p are the bytes it makes of tmpl_merge t p (the payload merged into the template: the template's fields, the
   payload's items where it has them), tmpl_merge t p has the template's shape, hence TemplatedUnflatten(t) gives
   back exactly tmpl_merge t p. *)
From Coq Require Import List NArith Bool Strings.Byte Lia.
From Muscle Require Import Gen.Consts Msg.MsgDefs Msg.MsgModel Msg.MsgApi Msg.TmplModel
  Msg.MsgBytesProofs Msg.MsgSizeProofs Msg.MsgRoundTrip Msg.MsgApiProofs Msg.TmplProofs.
Import ListNotations.
Local Open Scope N_scope.

(* ------------------------------------------------------------------ item lists *)

Lemma items_len_app (a b : items) : items_len (items_app a b) = items_len a + items_len b.
Proof. induction a as [|i t IH]; cbn [items_app items_len]; [reflexivity|rewrite IH; lia]. Qed.

Lemma items_len_take (l : items) : forall n, n <= items_len l -> items_len (items_take n l) = n.
Proof.
  induction l as [|i t IH]; intros n H; cbn [items_len items_take] in *; [lia|].
  destruct (N.eqb_spec n 0); cbn [items_len]; [|rewrite IH]; lia.
Qed.

Lemma items_len_drop (l : items) : forall n, items_len (items_drop n l) = items_len l - n.
Proof.
  induction l as [|i t IH]; intros n; cbn [items_len items_drop]; [reflexivity|].
  destruct (N.eqb_spec n 0); [subst; cbn [items_len]|rewrite IH]; lia.
Qed.

Lemma wf_items_app ft (a b : items) : wf_items ft a -> wf_items ft b -> wf_items ft (items_app a b).
Proof. induction a as [|i t IH]; cbn [items_app wf_items]; [auto|]. intros [Hi Ht] Hb. split; auto. Qed.

Lemma wf_items_take ft (l : items) : forall n, wf_items ft l -> wf_items ft (items_take n l).
Proof.
  induction l as [|i t IH]; intros n H; cbn [items_take]; [exact I|].
  destruct (n =? 0); [exact I|]. destruct H as [Hi Ht]. cbn [wf_items]. split; auto.
Qed.

Lemma wf_items_drop ft (l : items) : forall n, wf_items ft l -> wf_items ft (items_drop n l).
Proof.
  induction l as [|i t IH]; intros n H; cbn [items_drop]; [exact I|].
  destruct (n =? 0); [exact H|]. destruct H as [Hi Ht]. auto.
Qed.

Lemma src_len (rt rp : repr) : items_len (tmpl_src_items rt rp) = repr_count rt.
Proof.
  unfold tmpl_src_items. rewrite !repr_count_items.
  destruct (items_len (repr_items rt) <=? items_len (repr_items rp)) eqn:E.
  - apply N.leb_le in E. apply items_len_take. exact E.
  - apply N.leb_gt in E. rewrite items_len_app, items_len_drop. lia.
Qed.

Lemma src_wf ft (rt rp : repr) : wf_repr ft rt -> wf_repr ft rp -> wf_items ft (tmpl_src_items rt rp).
Proof.
  intros Ht Hp. apply wf_repr_items in Ht. apply wf_repr_items in Hp. unfold tmpl_src_items.
  destruct (_ <=? _); [apply wf_items_take; exact Hp|apply wf_items_app; [exact Hp|apply wf_items_drop; exact Ht]].
Qed.

(* ------------------------------------------------------------------ unfolding equations (leaf types) *)

Lemma mg_field_leaf ft rt pay : ft <> TMessage ->
  mg_field ft rt pay = match pay with None => rt | Some rp => RArray (tmpl_src_items rt rp) end.
Proof. intro H. destruct ft; try congruence; destruct rt; reflexivity. Qed.

(* ------------------------------------------------------------------ a leaf field *)

Lemma mg_leaf ft rt pay :
  ft <> TMessage -> ft_flattenable ft = true -> wf_repr ft rt -> 1 <= repr_count rt ->
  (forall rp, pay = Some rp -> wf_repr ft rp) ->
  wf_repr ft (mg_field ft rt pay) /\ repr_count (mg_field ft rt pay) = repr_count rt /\
  strip_repr (mg_field ft rt pay) = mg_field ft rt pay /\
  tf_field ft rt (Some (mg_field ft rt pay)) = tf_field ft rt pay /\
  ts_field ft rt (Some (mg_field ft rt pay)) = ts_field ft rt pay.
Proof.
  intros Hm Hf Hwt Hc Hwp. rewrite mg_field_leaf by exact Hm.
  rewrite !tf_field_leaf, !ts_field_leaf by exact Hm.
  destruct pay as [rp|].
  - specialize (Hwp rp eq_refl).
    pose proof (src_len rt rp) as Hl. pose proof (src_wf ft rt rp Hwt Hwp) as Hw.
    assert (Hcnt : repr_count (RArray (tmpl_src_items rt rp)) = repr_count rt) by exact Hl.
    split; [exact Hw|]. split; [exact Hcnt|].
    split; [apply (strip_repr_leaf ft); assumption|].
    rewrite Hcnt, N.leb_refl. rewrite (tmpl_src_same rt (RArray (tmpl_src_items rt rp))) by (symmetry; exact Hcnt).
    cbn [repr_items]. split; [|reflexivity].
    cbn [flat_limited]. rewrite <- Hl at 1. rewrite items_take_all.
    destruct (repr_count rt <=? repr_count rp) eqn:E; [|reflexivity].
    f_equal. unfold tmpl_src_items. rewrite E.
    destruct rp as [i|l]; cbn [flat_limited repr_items repr_count] in *; [|reflexivity].
    apply N.leb_le in E. assert (E1 : repr_count rt = 1) by lia. rewrite E1.
    change (items_take 1 (ICons i INil)) with (ICons i INil).
    apply flat_repr_singleton; assumption.
  - split; [exact Hwt|]. split; [reflexivity|]. split; [apply (strip_repr_leaf ft); assumption|].
    rewrite N.leb_refl, flat_limited_all. split; [reflexivity|].
    rewrite (tmpl_src_same rt rt eq_refl).
    destruct (ft_elems_fixed ft) eqn:Hx; [reflexivity|].
    assert (Hft : ft = TString \/ ft = TRaw) by (destruct ft; try discriminate Hf; try discriminate Hx; try congruence; auto).
    destruct (flat_repr_var ft rt Hft Hwt) as [_ Esr]. rewrite Esr, sizeof_u32. reflexivity.
Qed.

(* ------------------------------------------------------------------ the payload field of a template field *)

Lemma payload_for_wf n tc fp rp : wf_fields fp -> payload_for n tc fp = Some rp -> wf_repr (ftype_of_tc tc) rp.
Proof.
  intros Hw H. unfold payload_for in H. destruct (flookup n fp) as [[tcp r]|] eqn:E; [|discriminate].
  destruct (tcp =? tc) eqn:Et; [|discriminate]. apply N.eqb_eq in Et. subst tcp. injection H as <-.
  exact (proj2 (flookup_wf n fp tc r E Hw)).
Qed.

Lemma mg_fields_nodup ft fp : NoDup (fnames ft) -> NoDup (fnames (mg_fields ft fp)).
Proof.
  apply (subtable_names (fun ft => mg_fields ft fp)); [reflexivity|].
  intros. cbn [mg_fields]. destruct (flattenable tc); eauto.
Qed.

Lemma payload_for_mg FT fp n tc rt :
  NoDup (fnames FT) -> fin n tc rt FT -> flattenable tc = true ->
  payload_for n tc (mg_fields FT fp) = Some (mg_field (ftype_of_tc tc) rt (payload_for n tc fp)).
Proof.
  induction FT as [|k tc' r' t IH]; intros Hnd Hin Hfl; [destruct Hin|].
  cbn [fnames] in Hnd. inversion Hnd as [|x l Hnot Hnd']; subst.
  cbn [mg_fields fin] in *.
  destruct Hin as [(-> & -> & ->) | Hin].
  - rewrite Hfl. unfold payload_for at 1. cbn [flookup]. rewrite bytes_eqb_refl, N.eqb_refl. reflexivity.
  - assert (Hne : bytes_eqb n k = false).
    { apply bytes_eqb_neq. intros ->. apply Hnot. exact (fin_name _ _ _ _ Hin). }
    destruct (flattenable tc'); [|exact (IH Hnd' Hin Hfl)].
    unfold payload_for at 1. cbn [flookup]. rewrite Hne. exact (IH Hnd' Hin Hfl).
Qed.

Lemma nz_ne_all :
  (forall i, nz_item i -> ne_item i) /\ (forall l, nz_items l -> ne_items l) /\ (forall r, nz_repr r -> ne_repr r) /\
  (forall fs, nz_fields fs -> ne_fields fs) /\ (forall m, nz_msg m -> ne_msg m).
Proof.
  apply msg_mutind; try (intros; exact I).
  - (* IMsg *) intros m IH H. exact (IH H).
  - (* ICons *) intros i IHi t IHt [Hi Ht]. split; auto.
  - (* RInline *) intros i IH H. exact (IH H).
  - (* RArray *) intros l IH H. exact (IH H).
  - (* FCons *)
    intros n tc r IHr t IHt (Hc & Hr & Ht). cbn [ne_fields]. split; [destruct (ftype_of_tc tc); auto|]. split; auto.
  - (* Msg *) intros w fs IH H. exact (IH H).
Qed.

(* ------------------------------------------------------------------ the merge, by induction on the template *)

Definition MG_item (it : item) : Prop :=
  forall lp rest, wf_item TMessage it -> nz_item it -> wf_items TMessage lp ->
    wf_item TMessage (mg_item it lp) /\ shape_item it (ICons (mg_item it lp) rest) = true /\
    strip_item (mg_item it lp) = mg_item it lp /\
    tf_item it (ICons (mg_item it lp) rest) = tf_item it lp /\ ts_item it (ICons (mg_item it lp) rest) = ts_item it lp.

Definition MG_items (lt : items) : Prop :=
  forall lp, wf_items TMessage lt -> nz_items lt -> wf_items TMessage lp ->
    wf_items TMessage (mg_items lt lp) /\ shape_items lt (mg_items lt lp) = true /\
    strip_items (mg_items lt lp) = mg_items lt lp /\
    tf_items lt (mg_items lt lp) = tf_items lt lp /\ ts_items lt (mg_items lt lp) = ts_items lt lp /\
    items_len (mg_items lt lp) = items_len lt.

Definition MG_repr (rt : repr) : Prop :=
  forall ft pay, ft_flattenable ft = true -> wf_repr ft rt -> nz_repr rt -> 1 <= repr_count rt ->
    (forall rp, pay = Some rp -> wf_repr ft rp) ->
    wf_repr ft (mg_field ft rt pay) /\ repr_count (mg_field ft rt pay) = repr_count rt /\
    shape_repr ft rt (repr_items (mg_field ft rt pay)) = true /\
    strip_repr (mg_field ft rt pay) = mg_field ft rt pay /\
    tf_field ft rt (Some (mg_field ft rt pay)) = tf_field ft rt pay /\
    ts_field ft rt (Some (mg_field ft rt pay)) = ts_field ft rt pay.

Definition MG_fields (ft : fields) : Prop :=
  forall fp fq, wf_fields ft -> nz_fields ft -> NoDup (fnames ft) -> wf_fields fp ->
    (forall n tc rt, fin n tc rt ft -> flattenable tc = true ->
       payload_for n tc fq = Some (mg_field (ftype_of_tc tc) rt (payload_for n tc fp))) ->
    wf_fields (mg_fields ft fp) /\ shape_fields ft (mg_fields ft fp) = true /\
    strip_fields (mg_fields ft fp) = mg_fields ft fp /\
    tf_fields ft fq = tf_fields ft fp /\ ts_fields ft fq = ts_fields ft fp.

Definition MG_msg (t : msg) : Prop :=
  forall p, wf_msg t -> nz_msg t -> wf_msg p ->
    wf_msg (mg_msg t p) /\ shape_msg t (mg_msg t p) = true /\ strip_msg (mg_msg t p) = mg_msg t p /\
    tf_msg t (mg_msg t p) = tf_msg t p /\ ts_msg t (mg_msg t p) = ts_msg t p.

Lemma head_src_wf tm lp : wf_msg tm -> wf_items TMessage lp ->
  wf_msg (match items_head_msg lp with Some pm => pm | None => tm end).
Proof.
  intros Ht Hp. destruct lp as [|i lp']; [exact Ht|]. destruct i; try exact Ht. destruct Hp as [Hi _]. exact Hi.
Qed.

Lemma wf_items_tail ft lp : wf_items ft lp -> wf_items ft (items_tail lp).
Proof. destruct lp; [auto|]. intros [_ H]. exact H. Qed.

Lemma pay_items_wf ft pay :
  (forall rp, pay = Some rp -> wf_repr ft rp) ->
  wf_items ft (match pay with Some rp => repr_items rp | None => INil end).
Proof. destruct pay as [rp|]; intro H; [apply wf_repr_items, H; reflexivity|exact I]. Qed.

Lemma merge_all : (forall i, MG_item i) /\ (forall l, MG_items l) /\ (forall r, MG_repr r) /\ (forall fs, MG_fields fs) /\ (forall m, MG_msg m).
Proof.
  apply msg_mutind; try (intros ? ? ? H; cbn [wf_item] in H; contradiction).
  - (* IMsg *)
    intros tm IH lp rest Hw Hn Hwp. cbn [wf_item] in Hw. cbn [nz_item] in Hn.
    destruct (IH _ Hw Hn (head_src_wf tm lp Hw Hwp)) as (W & S & St & Tf & Ts).
    cbn [mg_item tf_item ts_item shape_item items_head_msg wf_item strip_item]. rewrite St, Tf, Ts. auto.
  - (* INil *)
    intros lp _ _ _. cbn. auto 6.
  - (* ICons *)
    intros it IHi lt2 IHt lp [Hwi Hwt] [Hni Hnt] Hwp.
    destruct (IHi lp (mg_items lt2 (items_tail lp)) Hwi Hni Hwp) as (W1 & S1 & St1 & Tf1 & Ts1).
    destruct (IHt (items_tail lp) Hwt Hnt (wf_items_tail _ _ Hwp)) as (W2 & S2 & St2 & Tf2 & Ts2 & L2).
    cbn [mg_items tf_items ts_items shape_items items_tail wf_items strip_items items_len].
    rewrite S1, S2, St1, St2, Tf1, Tf2, Ts1, Ts2, L2. auto 7.
  - (* RInline *)
    intros it IHi ft pay Hf Hw Hn Hc Hwp. cbn [wf_repr] in Hw. cbn [nz_repr] in Hn.
    destruct (ftype_eq_dec ft TMessage) as [->|Hm].
    + destruct (IHi _ INil Hw Hn (pay_items_wf _ pay Hwp)) as (W & S & St & Tf & Ts).
      cbn [mg_field tf_field ts_field wf_repr repr_count repr_items shape_repr strip_repr].
      rewrite St, Tf, Ts. auto 7.
    + destruct (mg_leaf ft (RInline it) pay Hm Hf Hw Hc Hwp) as (W & C & St & Tf & Ts).
      pose proof (shape_repr_leaf ft (RInline it) (repr_items (mg_field ft (RInline it) pay)) Hm). auto 7.
  - (* RArray *)
    intros lt IHl ft pay Hf Hw Hn Hc Hwp. cbn [wf_repr] in Hw. cbn [nz_repr] in Hn.
    destruct (ftype_eq_dec ft TMessage) as [->|Hm].
    + destruct (IHl _ Hw Hn (pay_items_wf _ pay Hwp)) as (W & S & St & Tf & Ts & L).
      cbn [mg_field tf_field ts_field wf_repr repr_count repr_items shape_repr strip_repr].
      rewrite St, Tf, Ts. auto 7.
    + destruct (mg_leaf ft (RArray lt) pay Hm Hf Hw Hc Hwp) as (W & C & St & Tf & Ts).
      pose proof (shape_repr_leaf ft (RArray lt) (repr_items (mg_field ft (RArray lt) pay)) Hm). auto 7.
  - (* FNil *)
    intros fp fq _ _ _ _ _. cbn. auto 6.
  - (* FCons *)
    intros n tc rt IHr tl IHt fp fq (Hn & Htc & Hr & Ht) (Hc & Hnz & Hnt) Hnd Hwp H.
    cbn [fnames] in Hnd. inversion Hnd as [|x l Hnot Hnd']; subst.
    destruct (IHt fp fq Ht Hnt Hnd' Hwp) as (W2 & S2 & St2 & Tf2 & Ts2).
    { intros n0 tc0 rt0 Hin. apply H. right. exact Hin. }
    cbn [mg_fields tf_fields ts_fields shape_fields].
    destruct (flattenable tc) eqn:Fl; [|rewrite Tf2, Ts2; auto 6].
    destruct (IHr (ftype_of_tc tc) (payload_for n tc fp) Fl Hr Hnz Hc) as (W1 & C1 & S1 & St1 & Tf1 & Ts1).
    { intros rp E. exact (payload_for_wf n tc fp rp Hwp E). }
    rewrite (H n tc rt) by (cbn [fin]; auto).
    cbn [strip_fields wf_fields]. rewrite Fl, bytes_eqb_refl, !N.eqb_refl, C1, N.eqb_refl, S1, S2, St1, St2, Tf1, Tf2, Ts1, Ts2.
    auto 8.
  - (* Msg *)
    intros wt ft IH [wp fp] (Hw & Hnd & Hwf) Hn (Hwp & Hndp & Hwfp). cbn [nz_msg] in Hn.
    destruct (IH fp (mg_fields ft fp) Hwf Hn Hnd Hwfp) as (W & S & St & Tf & Ts).
    { intros n tc rt Hin Hfl. exact (payload_for_mg ft fp n tc rt Hnd Hin Hfl). }
    cbn [mg_msg tf_msg ts_msg wf_msg shape_msg strip_msg]. rewrite St, Tf, Ts.
    auto 8 using mg_fields_nodup.
Qed.

(* ------------------------------------------------------------------ the theorems *)

Theorem tmpl_merge_ok (t p : msg) :
  wf_msg t -> nz_msg t -> wf_msg p ->
  wf_msg (tmpl_merge t p) /\ same_shape t (tmpl_merge t p) = true /\
  tmpl_flatten t (tmpl_merge t p) = tmpl_flatten t p /\
  tmpl_flattened_size t (tmpl_merge t p) = tmpl_flattened_size t p.
Proof.
  intros Hwt Hn Hwp. unfold tmpl_merge, same_shape, tmpl_flatten, tmpl_flattened_size.
  destruct (proj2 (proj2 (proj2 (proj2 merge_all))) t p Hwt Hn Hwp) as (W & S & St & Tf & Ts).
  rewrite St. auto.
Qed.

(* any template whose fields are non-empty, any payload: the templated bytes parse back to the merge *)
Theorem tmpl_roundtrip_any (t p : msg) :
  wf_msg t -> nz_msg t -> wf_msg p -> tmpl_flattened_size t p < two32 ->
  exists b, tmpl_flatten t p = Some b /\ len b = tmpl_flattened_size t p /\
            tmpl_unflatten t b = Ok (rt (tmpl_merge t p)).
Proof.
  intros Hwt Hn Hwp Hs.
  destruct (tmpl_merge_ok t p Hwt Hn Hwp) as (W & S & Tf & Ts).
  rewrite <- Ts in Hs.
  destruct (tmpl_roundtrip t (tmpl_merge t p) Hwt (proj2 (proj2 (proj2 (proj2 nz_ne_all))) t Hn) W S Hs) as (b & Eb & Lb & Hu).
  exists b. rewrite <- Tf, <- Ts. auto.
Qed.

(* a payload of the template's shape is its own merge, up to the parser's normal form *)
Corollary tmpl_merge_same_shape (t p : msg) :
  wf_msg t -> nz_msg t -> wf_msg p -> same_shape t p = true -> tmpl_flattened_size t p < two32 ->
  rt (tmpl_merge t p) = rt p.
Proof.
  intros Hwt Hn Hwp Hsh Hs.
  destruct (tmpl_roundtrip_any t p Hwt Hn Hwp Hs) as (b & Eb & _ & Hu).
  destruct (tmpl_roundtrip t p Hwt (proj2 (proj2 (proj2 (proj2 nz_ne_all))) t Hn) Hwp Hsh Hs) as (b' & Eb' & _ & Hu').
  rewrite Eb in Eb'. injection Eb' as <-. rewrite Hu in Hu'. injection Hu' as E. exact E.
Qed.

(* non-vacuity on the fewer-items case of finding F65: the payload {a: ["hi"]} against the template {a: ["qqqqq", "x"]} *)
Definition fewer_t : msg :=
  Msg 0 (FCons [x61] c_B_STRING_TYPE (RArray (ICons (IStr [x71; x71; x71; x71; x71]) (ICons (IStr [x78]) INil))) FNil).
Definition fewer_p : msg := Msg 0 (FCons [x61] c_B_STRING_TYPE (RInline (IStr [x68; x69])) FNil).

Example ex_fewer :
  wf_msg fewer_t /\ nz_msg fewer_t /\ wf_msg fewer_p /\ same_shape fewer_t fewer_p = false /\
  tmpl_flattened_size fewer_t fewer_p = 21 /\
  tmpl_flatten fewer_t fewer_p =
    Some [x00; x00; x00; x00; x02; x00; x00; x00; x03; x00; x00; x00; x68; x69; x00; x02; x00; x00; x00; x78; x00] /\
  tmpl_merge fewer_t fewer_p = Msg 0 (FCons [x61] c_B_STRING_TYPE (RArray (ICons (IStr [x68; x69]) (ICons (IStr [x78]) INil))) FNil).
Proof.
  split; [vm_compute; repeat split; try reflexivity; try exact I; try (repeat constructor; cbn [In]; intuition discriminate)|].
  split; [vm_compute; repeat split; try reflexivity; try exact I; discriminate|].
  split; [vm_compute; repeat split; try reflexivity; try exact I; try (repeat constructor; cbn [In]; intuition discriminate)|].
  repeat split; vm_compute; reflexivity.
Qed.
