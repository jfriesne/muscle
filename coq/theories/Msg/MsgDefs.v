(* Msg/MsgDefs.v -- INTERFACE of the Message codec model (C01, C08; reused by C02, C14, C04).

   What other properties import from here:
     bytes, byte_of_N, N_of_byte, len, takeN, dropN          byte strings and N-indexed slicing
     le_enc, le_dec, le32, u32, two32                         little-endian words, uint32 wrap
     ftype, ftype_of_tc, wire_size / elem_size / cpp_size     the type switch and the three size tables
     item / items / repr / fields / msg                       the Message data type (one mutual inductive,
                                                              own list types, see DESIGN.md section 3)
     msg_mutind (Combined Scheme)                             the induction principle all proofs use
     res (Ok | Err | Fuel | Crash), bind                      result type of the parsers
     items_len, fields_len, flookup, fsnoc, fapp, ...         list helpers on the own list types

   Representation choices (justified here once):
   * a byte is Coq.Init.Byte.byte (256 constructors): "bit-identical" in the property text is literally
     [=] on [list byte]; no range side conditions (b < 256) ever appear in a theorem;  conversions to N go
     through Byte.to_N / Byte.of_N whose round-trip lemmas are in the standard library.
   * a fixed-width item (bool, int8..int64, float, double, Point, Rect) is the list of its bytes in wire
     order; no float semantics enters the codec (NaN payloads, -0, inf are bit patterns).
   * lengths, counts, offsets, type codes are N;  uint32 wrap-around is written [u32].
   * a field's representation state is kept: RInline (one item inside the MessageField object) or RArray
     (an AbstractDataArray object).  FIELD_STATE_EMPTY is not a constructor: no public operation leaves an
     empty field in the table (RemoveData removes the name when the last item goes; SingleFlattenedSize
     MASSERTs _state == INLINE), so a Message value never contains one.
   No proofs in this file. *)
From Coq Require Import List NArith Bool Strings.Byte String.
From Muscle Require Import Gen.Consts.
Import ListNotations.
Local Open Scope N_scope.

(* ------------------------------------------------------------------ bytes *)

Definition bytes := list byte.

Definition byte_of_N (n : N) : byte :=
  match Byte.of_N (n mod 256) with Some b => b | None => x00 end.
Definition N_of_byte (b : byte) : N := Byte.to_N b.

Definition byte_eqb (a b : byte) : bool := N.eqb (N_of_byte a) (N_of_byte b).
Definition is_nul (b : byte) : bool := N.eqb (N_of_byte b) 0.

Fixpoint bytes_eqb (a b : bytes) : bool :=
  match a, b with
  | [], [] => true
  | x :: a', y :: b' => byte_eqb x y && bytes_eqb a' b'
  | _, _ => false
  end.

Fixpoint len {A} (l : list A) : N :=
  match l with [] => 0 | _ :: t => N.succ (len t) end.

Fixpoint takeN {A} (n : N) (l : list A) : list A :=
  match l with
  | [] => []
  | x :: t => if n =? 0 then [] else x :: takeN (N.pred n) t
  end.

Fixpoint dropN {A} (n : N) (l : list A) : list A :=
  match l with
  | [] => []
  | x :: t => if n =? 0 then l else dropN (N.pred n) t
  end.

Definition two32 : N := 4294967296.
Definition u32 (n : N) : N := n mod two32.

(* k-byte little-endian encoding of n mod 256^k;  le_dec is its inverse on any byte list *)
Fixpoint le_enc (k : nat) (n : N) : bytes :=
  match k with O => [] | S k' => byte_of_N n :: le_enc k' (n / 256) end.
Fixpoint le_dec (bs : bytes) : N :=
  match bs with [] => 0 | b :: t => N_of_byte b + 256 * le_dec t end.
Definition le32 (n : N) : bytes := le_enc 4 n.

(* ------------------------------------------------------------------ result type of the parsers *)

Inductive res (A : Type) : Type :=
| Ok (a : A)      (* B_NO_ERROR *)
| Err             (* any error status (B_BAD_DATA, B_TYPE_MISMATCH, ...) *)
| Fuel            (* the model's loop fuel ran out (never happens with adequate fuel; see fuel lemmas) *)
| Crash.          (* the code reaches an MCRASH / failed MASSERT (deliberate abort) *)
Arguments Ok {A} a.
Arguments Err {A}.
Arguments Fuel {A}.
Arguments Crash {A}.

Definition bind {A B} (r : res A) (f : A -> res B) : res B :=
  match r with Ok a => f a | Err => Err | Fuel => Fuel | Crash => Crash end.

(* ------------------------------------------------------------------ the type switch *)

(* the cases of the `switch(_typeCode)` statements in message/Message.cpp; TRaw is `default:` *)
Inductive ftype :=
| TBool | TDouble | TFloat | TInt64 | TInt32 | TInt16 | TInt8
| TPoint | TRect | TPointer | TTag | TMessage | TString | TRaw.

Definition ftype_of_tc (tc : N) : ftype :=
  if tc =? c_B_BOOL_TYPE then TBool
  else if tc =? c_B_DOUBLE_TYPE then TDouble
  else if tc =? c_B_FLOAT_TYPE then TFloat
  else if tc =? c_B_INT64_TYPE then TInt64
  else if tc =? c_B_INT32_TYPE then TInt32
  else if tc =? c_B_INT16_TYPE then TInt16
  else if tc =? c_B_INT8_TYPE then TInt8
  else if tc =? c_B_POINT_TYPE then TPoint
  else if tc =? c_B_RECT_TYPE then TRect
  else if tc =? c_B_POINTER_TYPE then TPointer
  else if tc =? c_B_TAG_TYPE then TTag
  else if tc =? c_B_MESSAGE_TYPE then TMessage
  else if tc =? c_B_STRING_TYPE then TString
  else TRaw.

Definition ftype_eqb (a b : ftype) : bool :=
  match a, b with
  | TBool, TBool | TDouble, TDouble | TFloat, TFloat | TInt64, TInt64 | TInt32, TInt32
  | TInt16, TInt16 | TInt8, TInt8 | TPoint, TPoint | TRect, TRect | TPointer, TPointer
  | TTag, TTag | TMessage, TMessage | TString, TString | TRaw, TRaw => true
  | _, _ => false
  end.

(* SingleIsFlattenable / PointerDataArray::IsFlattenable / TagDataArray::IsFlattenable *)
Definition ft_flattenable (t : ftype) : bool :=
  match t with TPointer | TTag => false | _ => true end.
Definition flattenable (tc : N) : bool := ft_flattenable (ftype_of_tc tc).

(* ---- the size tables.  The C++ writes them as sizeof() expressions inside Message.cpp; the translator
   captures each `return <expr>;` as text (the c_fsz_ and c_esz_ names) and the sizeof values by compiling a probe
   (the c_SIZEOF_ names); [eval_size] evaluates the expression forms that occur.  An expression the evaluator does
   not know evaluates to None and the side-condition lemma [size_tables_ok] (MsgSizeProofs) stops checking. *)
Definition size_exprs : list (string * N) :=
  [ ("0"%string, 0); ("1"%string, 1);
    ("sizeof(bool)"%string, c_SIZEOF_bool); ("sizeof(uint8)"%string, c_SIZEOF_uint8);
    ("sizeof(double)"%string, c_SIZEOF_double); ("sizeof(float)"%string, c_SIZEOF_float);
    ("sizeof(int64)"%string, c_SIZEOF_int64); ("sizeof(int32)"%string, c_SIZEOF_int32);
    ("sizeof(int16)"%string, c_SIZEOF_int16); ("sizeof(int8)"%string, c_SIZEOF_int8);
    ("sizeof(void *)"%string, c_SIZEOF_voidp); ("sizeof(Point)"%string, c_SIZEOF_Point);
    ("sizeof(Rect)"%string, c_SIZEOF_Rect); ("sizeof(MessageRef)"%string, c_SIZEOF_MessageRef);
    ("sizeof(String)"%string, c_SIZEOF_String);
    ("2*sizeof(float)"%string, 2 * c_SIZEOF_float); ("4*sizeof(float)"%string, 4 * c_SIZEOF_float) ].

Fixpoint assoc_str (s : string) (l : list (string * N)) : option N :=
  match l with
  | [] => None
  | (k, v) :: t => if String.eqb s k then Some v else assoc_str s t
  end.
Definition eval_size (s : string) : option N := assoc_str s size_exprs.
Definition eval_size0 (s : string) : N := match eval_size s with Some n => n | None => 0 end.

(* GetFlattenedSizeForFixedSizeType: bytes per item on the wire; 0 = not a fixed-size type *)
Definition wire_size (t : ftype) : N :=
  match t with
  | TBool => eval_size0 c_fsz_BOOL | TDouble => eval_size0 c_fsz_DOUBLE | TPointer => eval_size0 c_fsz_POINTER
  | TPoint => eval_size0 c_fsz_POINT | TRect => eval_size0 c_fsz_RECT | TFloat => eval_size0 c_fsz_FLOAT
  | TInt64 => eval_size0 c_fsz_INT64 | TInt32 => eval_size0 c_fsz_INT32 | TInt16 => eval_size0 c_fsz_INT16
  | TInt8 => eval_size0 c_fsz_INT8
  | TTag | TMessage | TString | TRaw => eval_size0 c_fsz_default
  end.

(* Message::GetElementSize: bytes per item in memory; 0 = variable-size (ByteBuffer) type *)
Definition elem_size (t : ftype) : N :=
  match t with
  | TBool => eval_size0 c_esz_BOOL | TDouble => eval_size0 c_esz_DOUBLE | TPointer => eval_size0 c_esz_POINTER
  | TPoint => eval_size0 c_esz_POINT | TRect => eval_size0 c_esz_RECT | TFloat => eval_size0 c_esz_FLOAT
  | TInt64 => eval_size0 c_esz_INT64 | TInt32 => eval_size0 c_esz_INT32 | TInt16 => eval_size0 c_esz_INT16
  | TInt8 => eval_size0 c_esz_INT8 | TMessage => eval_size0 c_esz_MESSAGE | TString => eval_size0 c_esz_STRING
  | TTag | TRaw => eval_size0 c_esz_default
  end.

(* sizeof(DataType) / FlatItemSize: what the typed readers and writers move per item
   (WriteInt32, ReadDouble, PrimitiveTypeDataArray<T>, FixedSizeFlatObjectArray<T,sizeof(T),..>) *)
Definition cpp_size (t : ftype) : N :=
  match t with
  | TBool => c_SIZEOF_bool | TDouble => c_SIZEOF_double | TFloat => c_SIZEOF_float
  | TInt64 => c_SIZEOF_int64 | TInt32 => c_SIZEOF_int32 | TInt16 => c_SIZEOF_int16 | TInt8 => c_SIZEOF_int8
  | TPoint => c_POINT_FLATTENED_SIZE | TRect => c_RECT_FLATTENED_SIZE
  | TPointer => c_SIZEOF_voidp
  | TTag | TMessage | TString | TRaw => 0
  end.

(* SingleFlattenedSize for the fixed-size types: bool is special-cased, the others use GetElementSize *)
Definition single_fix_size (t : ftype) : N :=
  match t with TBool => eval_size0 c_single_bool_flat_size | _ => elem_size t end.

(* fixed-size *flattenable* types *)
Definition ft_fixed (t : ftype) : bool :=
  match t with
  | TBool | TDouble | TFloat | TInt64 | TInt32 | TInt16 | TInt8 | TPoint | TRect => true
  | _ => false
  end.

(* ------------------------------------------------------------------ the Message data type *)

Inductive item : Type :=
| IFix (bs : bytes)      (* fixed-width item: its bytes in wire (little-endian) order *)
| IStr (bs : bytes)      (* muscle::String: the characters, without the terminating NUL *)
| IRaw (bs : bytes)      (* ByteBuffer held through a FlatCountableRef *)
| IMsg (m : msg)         (* sub-Message held through a MessageRef *)
| IOpaque (id : N)       (* pointer value / tag object identity: never serialised *)
with items : Type :=
| INil
| ICons (i : item) (tl : items)
with repr : Type :=
| RInline (i : item)     (* FIELD_STATE_INLINE *)
| RArray (l : items)     (* FIELD_STATE_ARRAY: owns an AbstractDataArray (Queue of items) *)
with fields : Type :=
| FNil
| FCons (name : bytes) (tc : N) (r : repr) (tl : fields)   (* table order = iteration order *)
with msg : Type :=
| Msg (what : N) (fs : fields).

Scheme item_mi := Induction for item Sort Prop
  with items_mi := Induction for items Sort Prop
  with repr_mi := Induction for repr Sort Prop
  with fields_mi := Induction for fields Sort Prop
  with msg_mi := Induction for msg Sort Prop.
Combined Scheme msg_mutind from item_mi, items_mi, repr_mi, fields_mi, msg_mi.

(* ------------------------------------------------------------------ helpers on the own list types *)

Fixpoint items_len (l : items) : N :=
  match l with INil => 0 | ICons _ t => N.succ (items_len t) end.

Fixpoint items_app (a b : items) : items :=
  match a with INil => b | ICons i t => ICons i (items_app t b) end.

Definition items_snoc (l : items) (i : item) : items := items_app l (ICons i INil).

Fixpoint items_nth (n : N) (l : items) : option item :=
  match l with
  | INil => None
  | ICons i t => if n =? 0 then Some i else items_nth (N.pred n) t
  end.

(* remove / replace the n-th item (identity when n is out of range) *)
Fixpoint items_remove (n : N) (l : items) : items :=
  match l with
  | INil => INil
  | ICons i t => if n =? 0 then t else ICons i (items_remove (N.pred n) t)
  end.
Fixpoint items_replace (n : N) (v : item) (l : items) : items :=
  match l with
  | INil => INil
  | ICons i t => if n =? 0 then ICons v t else ICons i (items_replace (N.pred n) v t)
  end.

Fixpoint items_rev_app (a acc : items) : items :=
  match a with INil => acc | ICons i t => items_rev_app t (ICons i acc) end.
Definition items_rev (a : items) : items := items_rev_app a INil.

Definition repr_count (r : repr) : N :=
  match r with RInline _ => 1 | RArray l => items_len l end.

Fixpoint fields_len (fs : fields) : N :=
  match fs with FNil => 0 | FCons _ _ _ t => N.succ (fields_len t) end.

Fixpoint fapp (a b : fields) : fields :=
  match a with FNil => b | FCons n tc r t => FCons n tc r (fapp t b) end.

Definition fsnoc (fs : fields) (n : bytes) (tc : N) (r : repr) : fields := fapp fs (FCons n tc r FNil).

(* Hashtable::Get on the field table *)
Fixpoint flookup (n : bytes) (fs : fields) : option (N * repr) :=
  match fs with
  | FNil => None
  | FCons k tc r t => if bytes_eqb n k then Some (tc, r) else flookup n t
  end.

(* overwrite the value of an existing key in place (position kept) *)
Fixpoint fset (n : bytes) (tc : N) (r : repr) (fs : fields) : fields :=
  match fs with
  | FNil => FNil
  | FCons k tc' r' t => if bytes_eqb n k then FCons k tc r t else FCons k tc' r' (fset n tc r t)
  end.

(* Hashtable::Remove *)
Fixpoint fremove (n : bytes) (fs : fields) : fields :=
  match fs with
  | FNil => FNil
  | FCons k tc r t => if bytes_eqb n k then t else FCons k tc r (fremove n t)
  end.

(* Hashtable::Put: overwrite in place when the key exists, else append at the end *)
Definition fput (n : bytes) (tc : N) (r : repr) (fs : fields) : fields :=
  match flookup n fs with Some _ => fset n tc r fs | None => fsnoc fs n tc r end.

Fixpoint fnames (fs : fields) : list bytes :=
  match fs with FNil => [] | FCons n _ _ t => n :: fnames t end.

Definition msg_what (m : msg) : N := match m with Msg w _ => w end.
Definition msg_fields (m : msg) : fields := match m with Msg _ fs => fs end.
