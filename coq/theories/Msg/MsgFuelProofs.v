(* Msg/MsgFuelProofs.v -- fuel adequacy of the parser model, for EVERY byte string (not only for the
   bytes Flatten produces): with the fuel that [unflatten] supplies, no loop of the model ever runs out of
   fuel, and every parser returns a rest at most as long as the window it was given (the read position only
   moves forward).  So [Fuel] is not an outcome of [unflatten], and the model's recursion on sub-Messages,
   item loops and the entry loop all terminate because each step consumes input. *)
From Coq Require Import List NArith Bool Strings.Byte Lia.
From Muscle Require Import Gen.Consts Msg.MsgDefs Msg.MsgModel Msg.MsgBytesProofs.
Import ListNotations.
Local Open Scope N_scope.

Definition ok_shrinks {A} (r : res (A * bytes)) (w : bytes) : Prop :=
  r <> Fuel /\ forall a w', r = Ok (a, w') -> (length w' <= length w)%nat.

Lemma ok_err {A} (w : bytes) : @ok_shrinks A Err w.
Proof. split; [discriminate|intros a w' H; discriminate H]. Qed.

Lemma ok_crash {A} (w : bytes) : @ok_shrinks A Crash w.
Proof. split; [discriminate|intros a w' H; discriminate H]. Qed.

Lemma ok_ret {A} (a : A) (w' w : bytes) : (length w' <= length w)%nat -> ok_shrinks (Ok (a, w')) w.
Proof. intro H. split; [discriminate|]. intros a0 w0 E. injection E as <- <-. exact H. Qed.

Lemma ok_bind {A B} (r : res (A * bytes)) (k : A * bytes -> res (B * bytes)) (w : bytes) :
  ok_shrinks r w ->
  (forall a w', r = Ok (a, w') -> (length w' <= length w)%nat -> ok_shrinks (k (a, w')) w) ->
  ok_shrinks (bind r k) w.
Proof.
  intros [Hnf Hs] Hk. destruct r as [[a w']| | |]; cbn [bind].
  - apply Hk; [reflexivity|]. apply (Hs a w'). reflexivity.
  - apply ok_err.
  - contradiction.
  - apply ok_crash.
Qed.

Lemma ok_weaken {A} (r : res (A * bytes)) (w1 w2 : bytes) :
  ok_shrinks r w1 -> (length w1 <= length w2)%nat -> ok_shrinks r w2.
Proof. intros [H1 H2] L. split; [exact H1|]. intros a w' E. specialize (H2 a w' E). lia. Qed.

Lemma length_take_drop {A} n (l : list A) : (length (takeN n l) + length (dropN n l) = length l)%nat.
Proof. rewrite <- app_length, takeN_dropN. reflexivity. Qed.

Lemma length_takeN {A} n (l : list A) : (length (takeN n l) <= length l)%nat.
Proof. pose proof (length_take_drop n l). lia. Qed.

Lemma length_dropN {A} n (l : list A) : (length (dropN n l) <= length l)%nat.
Proof. pose proof (length_take_drop n l). lia. Qed.

Lemma rd32_length (w : bytes) n w' : rd32 w = Ok (n, w') -> length w = (4 + length w')%nat.
Proof.
  destruct w as [|a [|b [|c [|d w]]]]; unfold rd32; try discriminate.
  intro H. assert (Hw : w = w') by congruence. subst w'. reflexivity.
Qed.

Lemma ok_rd32 (w : bytes) : ok_shrinks (rd32 w) w.
Proof.
  split.
  - destruct w as [|a [|b [|c [|d w]]]]; unfold rd32; discriminate.
  - intros n w' H. apply rd32_length in H. lia.
Qed.

Lemma ok_rd_lp_string (w : bytes) : ok_shrinks (rd_lp_string w) w.
Proof.
  unfold rd_lp_string. apply ok_bind; [apply ok_rd32|].
  intros n w1 E L. cbn [fst snd]. destruct (n <=? len w1); [|apply ok_err].
  destruct (upto_nul (takeN n w1)); [|apply ok_err].
  apply ok_ret. pose proof (length_dropN n w1). lia.
Qed.

Lemma ok_dec_lp_items (mk : bytes -> option item) (fuel : nat) (n : N) (w : bytes) :
  (length w < fuel)%nat -> ok_shrinks (dec_lp_items mk fuel n w) w.
Proof.
  revert n w; induction fuel as [|f IH]; intros n w Hf; [lia|].
  cbn [dec_lp_items]. destruct (n =? 0); [apply ok_ret; lia|].
  apply ok_bind; [apply ok_rd32|].
  intros sz w1 E L. cbn [fst snd]. apply rd32_length in E.
  destruct (sz <=? len w1); [|apply ok_err].
  destruct (mk (takeN sz w1)); [|apply ok_err].
  pose proof (length_dropN sz w1) as Ld.
  apply ok_bind.
  - apply ok_weaken with (dropN sz w1); [apply IH; lia|lia].
  - intros l w2 E2 L2. cbn [fst snd]. apply ok_ret. lia.
Qed.

Section Level.
  Variable inner : bytes -> res (msg * bytes).
  Variable f : nat.
  Hypothesis inner_ok : forall w, (length w < f)%nat -> ok_shrinks (inner w) w.

  Lemma ok_dec_msg_items (fuel : nat) (w : bytes) :
    (length w < f)%nat -> (length w < fuel)%nat -> ok_shrinks (dec_msg_items inner fuel w) w.
  Proof.
    revert w; induction fuel as [|fu IH]; intros w Hf Hfu; [lia|].
    cbn [dec_msg_items]. destruct w as [|b0 w0]; [apply ok_ret; cbn; lia|].
    set (w := b0 :: w0) in *.
    apply ok_bind; [apply ok_rd32|].
    intros sz w1 E L. cbn [fst snd]. apply rd32_length in E.
    destruct (sz <=? len w1); [|apply ok_err].
    pose proof (length_take_drop sz w1) as Lsum.
    apply ok_bind.
    - apply ok_weaken with (takeN sz w1); [apply inner_ok; lia|lia].
    - intros m rs E2 L2. cbn [fst snd].
      destruct (inner_ok (takeN sz w1)) as [_ Hs]; [lia|]. specialize (Hs m rs E2).
      assert (Lr : (length (rs ++ dropN sz w1) <= length w1)%nat) by (rewrite app_length; lia).
      apply ok_bind.
      + apply ok_weaken with (rs ++ dropN sz w1); [apply IH; lia|lia].
      + intros l w2 E3 L3. cbn [fst snd]. apply ok_ret. lia.
  Qed.

  Lemma ok_dec_single (ft : ftype) (w : bytes) : (length w < f)%nat -> ok_shrinks (dec_single inner ft w) w.
  Proof.
    intro Hf. unfold dec_single.
    destruct ft;
      try (destruct (cpp_size _ <=? len w); [apply ok_ret; apply length_dropN|apply ok_err]);
      try apply ok_err.
    - (* bool *) destruct w as [|b t]; [apply ok_err|apply ok_ret; cbn [length]; lia].
    - (* message *)
      apply ok_bind; [apply ok_rd32|]. intros sz w1 E L. cbn [fst snd]. apply rd32_length in E.
      destruct (sz =? len w1); [|apply ok_err].
      apply ok_bind.
      + apply ok_weaken with w1; [apply inner_ok; lia|lia].
      + intros m rs E2 L2. apply ok_ret. cbn [length]. lia.
    - (* string *)
      apply ok_bind; [apply ok_rd32|]. intros n w1 E L. cbn [fst snd].
      destruct (n =? 1); [|apply ok_err].
      apply ok_bind; [apply ok_weaken with w1; [apply ok_rd_lp_string|lia]|].
      intros s w2 E2 L2. cbn [fst snd]. apply ok_ret. lia.
    - (* raw *)
      apply ok_bind; [apply ok_rd32|]. intros n w1 E L. cbn [fst snd].
      destruct (n =? 1); [|apply ok_err].
      apply ok_bind; [apply ok_weaken with w1; [apply ok_rd32|lia]|].
      intros sz w2 E2 L2. cbn [fst snd]. destruct (sz =? len w2); [apply ok_ret; cbn [length]; lia|apply ok_err].
  Qed.

  Lemma ok_dec_array (ft : ftype) (w : bytes) : (length w < f)%nat -> ok_shrinks (dec_array inner ft w) w.
  Proof.
    intro Hf. unfold dec_array.
    destruct ft;
      try (destruct (arr_unit _ =? 0); [apply ok_err|];
           destruct (len w mod arr_unit _ =? 0); [apply ok_ret; cbn [length]; lia|apply ok_err]);
      try apply ok_crash.
    - apply ok_dec_msg_items; lia.
    - apply ok_bind; [apply ok_rd32|]. intros n w1 E L. cbn [fst snd]. apply rd32_length in E.
      destruct (_ <? n); [apply ok_err|].
      apply ok_weaken with w1; [apply ok_dec_lp_items; lia|lia].
    - apply ok_bind; [apply ok_rd32|]. intros n w1 E L. cbn [fst snd]. apply rd32_length in E.
      apply ok_weaken with w1; [apply ok_dec_lp_items; lia|lia].
  Qed.

  Lemma ok_dec_field (ft : ftype) (w : bytes) : (length w < f)%nat -> ok_shrinks (dec_field inner ft w) w.
  Proof.
    intro Hf. unfold dec_field. destruct (negb (ft_flattenable ft)); [apply ok_err|].
    destruct (num_items_in_buffer ft w =? 1).
    - apply ok_bind; [apply ok_dec_single; exact Hf|]. intros i w' E L. cbn [fst snd]. apply ok_ret. exact L.
    - apply ok_bind; [apply ok_dec_array; exact Hf|]. intros l w' E L. cbn [fst snd]. apply ok_ret. exact L.
  Qed.

  Lemma ok_dec_entries (n : nat) (acc : fields) (w : bytes) :
    (length w < f)%nat -> ok_shrinks (dec_entries inner n acc w) w.
  Proof.
    revert acc w; induction n as [|n IH]; intros acc w Hf; cbn [dec_entries]; [apply ok_ret; lia|].
    apply ok_bind; [apply ok_rd_lp_string|]. intros name w1 E1 L1. cbn [fst snd].
    apply ok_bind; [apply ok_weaken with w1; [apply ok_rd32|lia]|]. intros tc w2 E2 L2. cbn [fst snd].
    apply ok_bind; [apply ok_weaken with w2; [apply ok_rd32|lia]|]. intros elen w3 E3 L3. cbn [fst snd].
    match goal with |- ok_shrinks (match ?s with _ => _ end) _ => destruct s as [[ftc existed]|] end; [|apply ok_err].
    pose proof (length_take_drop elen w3) as Lsum.
    apply ok_bind.
    - apply ok_weaken with (takeN elen w3); [apply ok_dec_field; lia|lia].
    - intros r rs E4 L4. cbn [fst snd].
      destruct (ok_dec_field (ftype_of_tc ftc) (takeN elen w3)) as [_ Hs]; [lia|]. specialize (Hs r rs E4).
      assert (Lr : (length (rs ++ dropN elen w3) <= length w3)%nat) by (rewrite app_length; lia).
      apply ok_weaken with (rs ++ dropN elen w3); [apply IH; lia|lia].
  Qed.

  Lemma ok_dec_msg_level (w : bytes) : (length w <= f)%nat -> ok_shrinks (dec_msg_level inner w) w.
  Proof.
    intro Hf. unfold dec_msg_level.
    apply ok_bind; [apply ok_rd32|]. intros ver w1 E1 L1. cbn [fst snd]. apply rd32_length in E1.
    destruct (_ && _); [|apply ok_err].
    apply ok_bind; [apply ok_weaken with w1; [apply ok_rd32|lia]|]. intros wh w2 E2 L2. cbn [fst snd]. apply rd32_length in E2.
    apply ok_bind; [apply ok_weaken with w2; [apply ok_rd32|lia]|]. intros n w3 E3 L3. cbn [fst snd]. apply rd32_length in E3.
    destruct (_ <? n); [apply ok_err|].
    apply ok_bind.
    - apply ok_weaken with w3; [apply ok_dec_entries; lia|lia].
    - intros fs w4 E4 L4. cbn [fst snd]. apply ok_ret. exact L4.
  Qed.
End Level.

Lemma ok_dec_msg (fuel : nat) (w : bytes) : (length w < fuel)%nat -> ok_shrinks (dec_msg fuel w) w.
Proof.
  revert w; induction fuel as [|f IH]; intros w Hf; [lia|].
  cbn [dec_msg]. apply ok_dec_msg_level with (f := f); [exact IH|lia].
Qed.

Theorem unflatten_never_fuel (w : bytes) : unflatten w <> Fuel.
Proof.
  unfold unflatten. destruct (ok_dec_msg (S (length w)) w) as [Hnf _]; [lia|].
  destruct (dec_msg (S (length w)) w) as [[m r]| | |]; cbn [bind]; try discriminate. contradiction.
Qed.
