(* Msg/MsgBytesProofs.v -- lemmas about bytes, N-indexed slicing, little-endian words and the primitive
   readers of the Message codec model.  Reusable by every property that imports Msg.MsgDefs. *)
From Coq Require Import List NArith Bool Strings.Byte Lia.
From Muscle Require Import Gen.Consts Msg.MsgDefs Msg.MsgModel.
Import ListNotations.
Local Open Scope N_scope.

Lemma len_length {A} (l : list A) : len l = N.of_nat (length l).
Proof. induction l as [|x l IH]; cbn [len length]; [reflexivity|]. rewrite IH. lia. Qed.

Lemma len_app {A} (a b : list A) : len (a ++ b) = len a + len b.
Proof. induction a as [|x a IH]; cbn [len app]; [reflexivity|]. rewrite IH. lia. Qed.

Lemma leb_len_app {A} (a b : list A) : (len a <=? len (a ++ b)) = true.
Proof. apply N.leb_le. rewrite len_app. lia. Qed.

Lemma len_nil {A} : len (@nil A) = 0.
Proof. reflexivity. Qed.

Lemma len_cons {A} (x : A) l : len (x :: l) = 1 + len l.
Proof. cbn [len]. lia. Qed.

Lemma len_zero_nil {A} (l : list A) : len l = 0 -> l = [].
Proof. destruct l; cbn [len]; [reflexivity|lia]. Qed.

Lemma takeN_0 {A} (l : list A) : takeN 0 l = [].
Proof. destruct l; reflexivity. Qed.

Lemma dropN_0 {A} (l : list A) : dropN 0 l = l.
Proof. destruct l; reflexivity. Qed.

Lemma takeN_app_exact {A} (a b : list A) : takeN (len a) (a ++ b) = a.
Proof.
  induction a as [|x a IH]; cbn [len app takeN]; [apply takeN_0|].
  rewrite (proj2 (N.eqb_neq _ _) (N.neq_succ_0 _)), N.pred_succ, IH. reflexivity.
Qed.

Lemma takeN_dropN {A} n (l : list A) : takeN n l ++ dropN n l = l.
Proof.
  revert n; induction l as [|x l IH]; intro n; cbn [takeN dropN]; [reflexivity|].
  destruct (n =? 0); [reflexivity|]. cbn [app]. rewrite IH. reflexivity.
Qed.

Lemma dropN_app_exact {A} (a b : list A) : dropN (len a) (a ++ b) = b.
Proof. apply (app_inv_head a). rewrite <- (takeN_app_exact a b) at 1. apply takeN_dropN. Qed.

Lemma takeN_all {A} (a : list A) : takeN (len a) a = a.
Proof. rewrite <- (app_nil_r a) at 2. apply takeN_app_exact. Qed.

Lemma dropN_all {A} (a : list A) : dropN (len a) a = [].
Proof. rewrite <- (app_nil_r a) at 2. apply dropN_app_exact. Qed.

Lemma len_takeN {A} n (l : list A) : len (takeN n l) = N.min n (len l).
Proof.
  revert n; induction l as [|x l IH]; intro n; cbn [takeN len]; [lia|].
  destruct (N.eqb_spec n 0); cbn [len]; [|rewrite IH]; lia.
Qed.

Lemma len_dropN {A} n (l : list A) : len (dropN n l) = len l - n.
Proof. pose proof (f_equal len (takeN_dropN n l)) as E. rewrite len_app, len_takeN in E. lia. Qed.

Lemma length_len_le {A} (l : list A) (k : nat) : len l <= N.of_nat k -> (length l <= k)%nat.
Proof. rewrite len_length. lia. Qed.

Lemma N_of_byte_lt (b : byte) : N_of_byte b < 256.
Proof. unfold N_of_byte. pose proof (Byte.to_N_bounded b). lia. Qed.

Lemma N_of_byte_of_N (n : N) : N_of_byte (byte_of_N n) = n mod 256.
Proof.
  unfold byte_of_N, N_of_byte.
  destruct (Byte.of_N (n mod 256)) as [b|] eqn:E.
  - apply Byte.to_of_N. exact E.
  - apply Byte.of_N_None_iff in E. pose proof (N.mod_upper_bound n 256). lia.
Qed.

Lemma byte_of_N_of_byte (b : byte) : byte_of_N (N_of_byte b) = b.
Proof.
  unfold byte_of_N, N_of_byte.
  rewrite N.mod_small by (pose proof (Byte.to_N_bounded b); lia).
  rewrite Byte.of_to_N. reflexivity.
Qed.

Lemma N_of_byte_inj (a b : byte) : N_of_byte a = N_of_byte b -> a = b.
Proof. intro H. rewrite <- (byte_of_N_of_byte a), <- (byte_of_N_of_byte b), H. reflexivity. Qed.

Lemma byte_eqb_eq (a b : byte) : byte_eqb a b = true <-> a = b.
Proof.
  unfold byte_eqb. rewrite N.eqb_eq. split; [apply N_of_byte_inj|intros ->; reflexivity].
Qed.

Lemma byte_eqb_refl (a : byte) : byte_eqb a a = true.
Proof. apply byte_eqb_eq. reflexivity. Qed.

Lemma bytes_eqb_eq (a b : bytes) : bytes_eqb a b = true <-> a = b.
Proof.
  revert b; induction a as [|x a IH]; intros [|y b]; cbn [bytes_eqb].
  - split; reflexivity.
  - split; discriminate.
  - split; discriminate.
  - rewrite andb_true_iff, byte_eqb_eq, IH. split; [intros [H1 H2]; subst; reflexivity|intro H; inversion H; auto].
Qed.

Lemma bytes_eqb_refl (a : bytes) : bytes_eqb a a = true.
Proof. apply bytes_eqb_eq. reflexivity. Qed.

Lemma bytes_eqb_neq (a b : bytes) : bytes_eqb a b = false <-> a <> b.
Proof.
  split.
  - intros H E. apply bytes_eqb_eq in E. congruence.
  - intro H. destruct (bytes_eqb a b) eqn:E; [|reflexivity]. apply bytes_eqb_eq in E. contradiction.
Qed.

Lemma bytes_eqb_sym (a b : bytes) : bytes_eqb a b = bytes_eqb b a.
Proof.
  destruct (bytes_eqb a b) eqn:E.
  - apply bytes_eqb_eq in E. subst. symmetry. apply bytes_eqb_refl.
  - symmetry. apply bytes_eqb_neq. apply bytes_eqb_neq in E. congruence.
Qed.

Lemma le_dec_cons b t : le_dec (b :: t) = N_of_byte b + 256 * le_dec t.
Proof. reflexivity. Qed.
Lemma le_dec_nil : le_dec [] = 0.
Proof. reflexivity. Qed.

Lemma le_dec_le_enc (k : nat) (n : N) : le_dec (le_enc k n) = n mod 256 ^ N.of_nat k.
Proof.
  revert n; induction k as [|k IH]; intro n.
  - cbn [le_enc le_dec]. change (N.of_nat 0) with 0. rewrite N.pow_0_r, N.mod_1_r. reflexivity.
  - cbn [le_enc le_dec]. rewrite IH, N_of_byte_of_N.
    rewrite Nat2N.inj_succ, N.pow_succ_r'.
    rewrite N.mod_mul_r; [reflexivity|lia|].
    apply N.pow_nonzero. lia.
Qed.

Lemma length_le_enc (k : nat) (n : N) : length (le_enc k n) = k.
Proof. revert n; induction k as [|k IH]; intro n; cbn [le_enc length]; [reflexivity|]. rewrite IH. reflexivity. Qed.

Lemma len_le32 (n : N) : len (le32 n) = 4.
Proof. reflexivity. Qed.

Lemma le_dec_le32 (n : N) : n < two32 -> le_dec (le32 n) = n.
Proof.
  intro H. unfold le32. rewrite le_dec_le_enc. change (256 ^ N.of_nat 4) with two32.
  apply N.mod_small. exact H.
Qed.

Lemma le32_cons4 (n : N) : exists a b c d, le32 n = [a; b; c; d].
Proof. unfold le32. cbn [le_enc]. eauto. Qed.

Lemma rd32_le32 (n : N) (w : bytes) : n < two32 -> rd32 (le32 n ++ w) = Ok (n, w).
Proof.
  intro H. destruct (le32_cons4 n) as (a & b & c & d & E).
  rewrite E. cbn [app]. unfold rd32. rewrite <- E, le_dec_le32 by exact H. reflexivity.
Qed.

Lemma rd32_short (w : bytes) : len w < 4 -> rd32 w = Err.
Proof.
  destruct w as [|a [|b [|c [|d w]]]]; unfold rd32; try reflexivity.
  rewrite !len_cons. lia.
Qed.

Lemma rd32_rest_len (w : bytes) n w' : rd32 w = Ok (n, w') -> len w = 4 + len w'.
Proof.
  destruct w as [|a [|b [|c [|d w]]]]; unfold rd32; try discriminate.
  intro H. assert (Hw : w = w') by congruence. subst w'. rewrite !len_cons. lia.
Qed.

Lemma rd32_lt (w : bytes) n w' : rd32 w = Ok (n, w') -> n < two32.
Proof.
  destruct w as [|a [|b [|c [|d w]]]]; unfold rd32; try discriminate.
  intro H. assert (Hn : le_dec [a; b; c; d] = n) by congruence. subst n. rewrite !le_dec_cons, le_dec_nil.
  pose proof (N_of_byte_lt a). pose proof (N_of_byte_lt b). pose proof (N_of_byte_lt c). pose proof (N_of_byte_lt d).
  unfold two32. lia.
Qed.

Lemma is_nul_x00 : is_nul x00 = true.
Proof. reflexivity. Qed.

Lemma upto_nul_app (s w : bytes) : nul_free s -> upto_nul (s ++ x00 :: w) = Some s.
Proof.
  unfold nul_free. induction s as [|b s IH]; cbn [app upto_nul].
  - intros _. rewrite is_nul_x00. reflexivity.
  - destruct (is_nul b); [discriminate|].
    destruct (upto_nul s) eqn:E; [discriminate|]. intros _. rewrite IH by reflexivity. reflexivity.
Qed.

Lemma nul_free_nil : nul_free [].
Proof. reflexivity. Qed.

Lemma nul_free_cons b s : nul_free (b :: s) <-> is_nul b = false /\ nul_free s.
Proof.
  unfold nul_free. cbn [upto_nul]. destruct (is_nul b).
  - split; [discriminate|intros [H _]; discriminate].
  - destruct (upto_nul s); split; try discriminate; try (intros [_ H]; discriminate); auto.
Qed.

Lemma str_flat_size_len (s : bytes) : str_flat_size s = len (s ++ [x00]).
Proof. unfold str_flat_size. rewrite len_app. reflexivity. Qed.

Lemma rd_lp_string_app (s w : bytes) :
  nul_free s -> str_flat_size s < two32 ->
  rd_lp_string (le32 (str_flat_size s) ++ s ++ x00 :: w) = Ok (s, w).
Proof.
  intros Hn Hs. unfold rd_lp_string. rewrite rd32_le32 by exact Hs. cbn [bind fst snd].
  change (s ++ x00 :: w) with (s ++ [x00] ++ w). rewrite app_assoc, str_flat_size_len in *.
  rewrite leb_len_app, takeN_app_exact, dropN_app_exact.
  rewrite (upto_nul_app s []) by exact Hn. reflexivity.
Qed.
