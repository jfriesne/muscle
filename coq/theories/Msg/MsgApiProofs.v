(* Msg/MsgApiProofs.v -- names and lookups of the field table; Section TableInvariant: what every operation of the
   modelled public API preserves (used for wf here, for nz in TmplProofs, for nd lookups in MsgEqProofs); hence
   every Message built from the empty Message is structurally well-formed (api_reachable_wf). *)
From Coq Require Import List NArith Bool Strings.Byte Lia.
From Muscle Require Import Gen.Consts Msg.MsgDefs Msg.MsgModel Msg.MsgApi Msg.MsgBytesProofs.
Import ListNotations.
Local Open Scope N_scope.

(* ------------------------------------------------------------------ the field table *)

Lemma flookup_in_iff (n : bytes) (fs : fields) : In n (fnames fs) <-> flookup n fs <> None.
Proof.
  induction fs as [|k tc r t IH]; cbn [fnames In flookup]; [tauto|].
  destruct (bytes_eqb n k) eqn:E.
  - apply bytes_eqb_eq in E. split; [discriminate|auto].
  - apply bytes_eqb_neq in E. rewrite <- IH. split; [intros [H|H]; congruence|auto].
Qed.

Lemma flookup_in n fs : In n (fnames fs) -> flookup n fs <> None.
Proof. apply flookup_in_iff. Qed.

Lemma flookup_none_notin (n : bytes) (fs : fields) : flookup n fs = None -> ~ In n (fnames fs).
Proof. intros H Hin. exact (flookup_in n fs Hin H). Qed.

Lemma notin_flookup (n : bytes) (fs : fields) : ~ In n (fnames fs) -> flookup n fs = None.
Proof. intro H. destruct (flookup n fs) eqn:E; [|reflexivity]. exfalso. apply H, flookup_in_iff. congruence. Qed.

Lemma fnames_fset n tc r fs : fnames (fset n tc r fs) = fnames fs.
Proof.
  induction fs as [|k tc' r' t IH]; cbn [fset fnames]; [reflexivity|].
  destruct (bytes_eqb n k); cbn [fnames]; [reflexivity|]. rewrite IH. reflexivity.
Qed.

Lemma fnames_fapp a b : fnames (fapp a b) = fnames a ++ fnames b.
Proof. induction a as [|k tc r t IH]; cbn [fapp fnames app]; [reflexivity|]. rewrite IH. reflexivity. Qed.

Lemma NoDup_snoc {A} (l : list A) (x : A) : NoDup l -> ~ In x l -> NoDup (l ++ [x]).
Proof.
  induction l as [|y l IH]; cbn [app]; intros Hnd Hnin.
  - constructor; [intros []|constructor].
  - inversion Hnd as [|? ? Hy Hl]; subst. constructor.
    + rewrite in_app_iff. cbn [In]. intros [H|[H|[]]]; [exact (Hy H)|]. subst. apply Hnin. left. reflexivity.
    + apply IH; [exact Hl|]. intro H. apply Hnin. right. exact H.
Qed.

Lemma fnames_fremove_sub n fs k : In k (fnames (fremove n fs)) -> In k (fnames fs).
Proof.
  induction fs as [|k' tc r t IH]; cbn [fremove fnames]; [auto|].
  destruct (bytes_eqb n k'); cbn [fnames In]; intuition.
Qed.

Lemma nodup_fremove n fs : NoDup (fnames fs) -> NoDup (fnames (fremove n fs)).
Proof.
  induction fs as [|k tc r t IH]; cbn [fremove fnames]; intro H; [constructor|].
  inversion H as [|? ? Hk Ht]; subst.
  destruct (bytes_eqb n k); cbn [fnames]; [exact Ht|].
  constructor; [|auto]. intro Hin. apply Hk. exact (fnames_fremove_sub n t k Hin).
Qed.

Lemma notin_fremove n fs : NoDup (fnames fs) -> ~ In n (fnames (fremove n fs)).
Proof.
  induction fs as [|k tc r t IH]; cbn [fremove fnames]; intro H; [intros []|].
  inversion H as [|? ? Hk Ht]; subst.
  destruct (bytes_eqb n k) eqn:E.
  - apply bytes_eqb_eq in E. subst k. exact Hk.
  - cbn [fnames In]. intros [Hx|Hx]; [subst; rewrite bytes_eqb_refl in E; discriminate|exact (IH Ht Hx)].
Qed.

(* ------------------------------------------------------------------ item lists *)

Lemma wf_items_snoc ft l v : wf_items ft l -> wf_item ft v -> wf_items ft (items_snoc l v).
Proof.
  intros Hl Hv. unfold items_snoc. induction l as [|i t IH]; cbn [items_app wf_items]; [auto|].
  destruct Hl as [Hi Ht]. auto.
Qed.

Lemma wf_items_remove ft k l : wf_items ft l -> wf_items ft (items_remove k l).
Proof.
  revert k; induction l as [|i t IH]; intros k Hl; cbn [items_remove]; [exact I|].
  destruct Hl as [Hi Ht]. destruct (k =? 0); [exact Ht|]. cbn [wf_items]. auto.
Qed.

Lemma wf_items_replace ft k v l : wf_items ft l -> wf_item ft v -> wf_items ft (items_replace k v l).
Proof.
  revert k; induction l as [|i t IH]; intros k Hl Hv; cbn [items_replace]; [exact I|].
  destruct Hl as [Hi Ht]. destruct (k =? 0); cbn [wf_items]; auto.
Qed.

Lemma wf_push ft prepend r v :
  match r with Some r0 => wf_repr ft r0 | None => True end -> wf_item ft v -> wf_repr ft (push prepend r v).
Proof.
  intros Hr Hv. destruct r as [[a|l]|]; cbn [push wf_repr].
  - destruct prepend; cbn [wf_items]; cbn [wf_repr] in Hr; auto.
  - cbn [wf_repr] in Hr. destruct prepend; [cbn [wf_items]; auto|apply wf_items_snoc; assumption].
  - exact Hv.
Qed.

(* "what-code in W, names distinct, every field in Q" is preserved by every operation as soon as Q survives push,
   items_replace, items_remove and a renaming; a new item v fits the field (n, tc) when [Q n tc (RInline v)] *)
Section TableInvariant.
  Variable W : N -> Prop.
  Variable F : fields -> Prop.
  Variable Q : bytes -> N -> repr -> Prop.
  Variable Nm : bytes -> Prop.
  Hypothesis W_u32 : forall w, W (u32 w).
  Hypothesis F_nil : F FNil.
  Hypothesis F_cons : forall n tc r t, F (FCons n tc r t) <-> Q n tc r /\ F t.
  Hypothesis Q_push : forall p n tc r v, Q n tc r -> Q n tc (RInline v) -> Q n tc (push p (Some r) v).
  Hypothesis Q_replace : forall n tc l k v,
    Q n tc (RArray l) -> Q n tc (RInline v) -> Q n tc (RArray (items_replace k v l)).
  Hypothesis Q_remove : forall n tc l k,
    Q n tc (RArray l) -> items_len (items_remove k l) <> 0 -> Q n tc (RArray (items_remove k l)).
  Hypothesis Q_rename : forall old new tc r, Q old tc r -> Nm new -> Q new tc r.

  Definition op_fits (o : mop) : Prop :=
    match o with
    | OAdd _ n tc v => Q n tc (RInline v)
    | OReplace _ n tc _ v => Q n tc (RInline v)
    | ORename _ new => Nm new
    | OCopyName _ new => Nm new
    | _ => True
    end.

  Lemma F_flookup n fs tc r : flookup n fs = Some (tc, r) -> F fs -> Q n tc r.
  Proof.
    induction fs as [|k tc' r' t IH]; cbn [flookup]; [discriminate|].
    intros H Hf. apply F_cons in Hf. destruct Hf as [Hq Ht].
    destruct (bytes_eqb n k) eqn:E; [|exact (IH H Ht)].
    apply bytes_eqb_eq in E. subst k. injection H as <- <-. exact Hq.
  Qed.

  Lemma F_fset n tc r fs : F fs -> Q n tc r -> F (fset n tc r fs).
  Proof.
    intros Hf Hq. induction fs as [|k tc' r' t IH]; cbn [fset]; [exact Hf|].
    apply F_cons in Hf. destruct Hf as [Hq' Ht].
    destruct (bytes_eqb n k) eqn:E; apply F_cons; [|auto].
    apply bytes_eqb_eq in E. subst k. auto.
  Qed.

  Lemma F_fapp a b : F a -> F b -> F (fapp a b).
  Proof.
    intros Ha Hb. induction a as [|k tc r t IH]; cbn [fapp]; [exact Hb|].
    apply F_cons in Ha. destruct Ha. apply F_cons. auto.
  Qed.

  Lemma F_fremove n fs : F fs -> F (fremove n fs).
  Proof.
    induction fs as [|k tc r t IH]; cbn [fremove]; intro Hf; [exact Hf|].
    apply F_cons in Hf. destruct Hf as [Hq Ht]. destruct (bytes_eqb n k); [exact Ht|]. apply F_cons. auto.
  Qed.

  Definition tinv (fs : fields) : Prop := NoDup (fnames fs) /\ F fs.
  Definition minv (m : msg) : Prop := W (msg_what m) /\ tinv (msg_fields m).

  Lemma tinv_fset n tc r fs : tinv fs -> Q n tc r -> tinv (fset n tc r fs).
  Proof. intros [Hnd Hf] Hq. split; [rewrite fnames_fset; exact Hnd|apply F_fset; assumption]. Qed.

  Lemma tinv_fsnoc fs n tc r : tinv fs -> flookup n fs = None -> Q n tc r -> tinv (fsnoc fs n tc r).
  Proof.
    intros [Hnd Hf] Hl Hq. split; [|apply F_fapp, F_cons; auto].
    unfold fsnoc. rewrite fnames_fapp. apply NoDup_snoc; [exact Hnd|]. apply flookup_none_notin. exact Hl.
  Qed.

  Lemma tinv_fremove n fs : tinv fs -> tinv (fremove n fs).
  Proof. intros [Hnd Hf]. split; [apply nodup_fremove; exact Hnd|apply F_fremove; exact Hf]. Qed.

  Lemma tinv_fput n tc r fs : tinv fs -> Q n tc r -> tinv (fput n tc r fs).
  Proof. intros Hi Hq. unfold fput. destruct (flookup n fs) eqn:E; [apply tinv_fset|apply tinv_fsnoc]; assumption. Qed.

  Lemma api_add_inv p n tc v w fs : W w -> tinv fs -> Q n tc (RInline v) -> minv (fst (api_add p n tc v (Msg w fs))).
  Proof.
    intros Hw Hi Hv. unfold api_add.
    destruct (tc =? c_B_ANY_TYPE); [exact (conj Hw Hi)|].
    destruct (flookup n fs) as [[tc' r]|] eqn:El.
    - destruct (tc' =? tc) eqn:Et; [|exact (conj Hw Hi)]. apply N.eqb_eq in Et. subst tc'.
      split; [exact Hw|]. apply tinv_fset; [exact Hi|]. apply Q_push; [|exact Hv].
      exact (F_flookup _ _ _ _ El (proj2 Hi)).
    - split; [exact Hw|]. apply tinv_fsnoc; assumption.
  Qed.

  Lemma step_inv (m : msg) (o : mop) : minv m -> op_fits o -> minv (fst (step m o)).
  Proof.
    destruct m as [w fs]. intros Hm Ho. pose proof Hm as (Hw & Hi). pose proof Hi as [Hnd Hf]. cbn [msg_fields] in *.
    destruct o as [p n tc v|a n tc idx v|n idx|n|old new|x| |n|n|old new]; cbn [step op_fits] in *.
    - apply api_add_inv; assumption.
    - unfold api_replace.
      destruct (tc =? c_B_ANY_TYPE); [exact Hm|].
      destruct (flookup n fs) as [[tc' r]|] eqn:El.
      + destruct (tc' =? tc) eqn:Et.
        * apply N.eqb_eq in Et. subst tc'.
          destruct (a && (repr_count r <=? idx)); [apply api_add_inv; assumption|].
          pose proof (F_flookup _ _ _ _ El Hf) as Hr.
          destruct r as [i|l].
          -- destruct (idx =? 0); [|exact Hm]. split; [exact Hw|]. apply tinv_fset; assumption.
          -- destruct (idx <? items_len l); [|exact Hm]. split; [exact Hw|]. apply tinv_fset; auto.
        * destruct (a && true); [apply api_add_inv; assumption|exact Hm].
      + destruct (a && true); [apply api_add_inv; assumption|exact Hm].
    - unfold api_remove_data.
      destruct (flookup n fs) as [[tc r]|] eqn:El; [|exact Hm].
      pose proof (F_flookup _ _ _ _ El Hf) as Hr.
      destruct r as [i|l].
      + destruct (idx =? 0); [|exact Hm]. split; [exact Hw|]. apply tinv_fremove. exact Hi.
      + destruct (idx <? items_len l).
        * destruct (items_len (items_remove idx l) =? 0) eqn:E0; (split; [exact Hw|]); [apply tinv_fremove; exact Hi|].
          apply N.eqb_neq in E0. apply tinv_fset; auto.
        * destruct (items_len l =? 0); [|exact Hm]. split; [exact Hw|]. apply tinv_fremove. exact Hi.
    - unfold api_remove_name. destruct (flookup n fs); [|exact Hm]. split; [exact Hw|]. apply tinv_fremove. exact Hi.
    - unfold api_rename. destruct (bytes_eqb old new); [exact Hm|].
      destruct (flookup old fs) as [[tc r]|] eqn:El; [|exact Hm].
      split; [exact Hw|]. apply tinv_fput; [apply tinv_fremove; exact Hi|]. eauto using F_flookup.
    - split; [apply W_u32|exact Hi].
    - split; [exact Hw|]. split; [constructor|exact F_nil].
    - unfold api_move. destruct (flookup n fs) as [[tc r]|] eqn:El; [|exact Hm].
      split; [exact Hw|]. split.
      + cbn [fst msg_fields fnames]. constructor; [apply notin_fremove|apply nodup_fremove]; exact Hnd.
      + apply F_cons. eauto using F_flookup, F_fremove.
    - unfold api_move. destruct (flookup n fs) as [[tc r]|] eqn:El; [|exact Hm].
      split; [exact Hw|]. apply tinv_fsnoc; [apply tinv_fremove; exact Hi| |eauto using F_flookup].
      apply notin_flookup, notin_fremove. exact Hnd.
    - unfold api_copy_name. destruct (bytes_eqb old new); [exact Hm|].
      destruct (flookup old fs) as [[tc r]|] eqn:El; [|exact Hm].
      split; [exact Hw|]. apply tinv_fput; [exact Hi|]. eauto using F_flookup.
  Qed.
End TableInvariant.

Lemma run_preserves (P : msg -> Prop) (ok : mop -> Prop) :
  (forall m o, P m -> ok o -> P (fst (step m o))) ->
  forall ops m, P m -> Forall ok ops -> P (run ops m).
Proof.
  intros Hstep ops. unfold run. induction ops as [|o ops IH]; intros m Hm Hok; cbn [fold_left]; [exact Hm|].
  inversion Hok as [|? ? Ho Hops]; subst. apply IH; [|exact Hops]. apply Hstep; assumption.
Qed.

(* ------------------------------------------------------------------ every operation preserves well-formedness *)

Definition wf_field (n : bytes) (tc : N) (r : repr) : Prop := nul_free n /\ tc < two32 /\ wf_repr (ftype_of_tc tc) r.

Lemma wf_fields_cons n tc r t : wf_fields (FCons n tc r t) <-> wf_field n tc r /\ wf_fields t.
Proof. cbn [wf_fields]. unfold wf_field. tauto. Qed.

Lemma flookup_wf (n : bytes) (fs : fields) tc r :
  flookup n fs = Some (tc, r) -> wf_fields fs -> tc < two32 /\ wf_repr (ftype_of_tc tc) r.
Proof. intros H Hw. exact (proj2 (F_flookup wf_fields wf_field wf_fields_cons n fs tc r H Hw)). Qed.

(* op_ok o is op_fits o at Q := wf_field, Nm := nul_free, by computation *)
Lemma step_wf (m : msg) (o : mop) : wf_msg m -> op_ok o -> wf_msg (fst (step m o)).
Proof.
  assert (E : forall m, wf_msg m <-> minv (fun w => w < two32) wf_fields m) by (intros []; reflexivity).
  rewrite !E. apply (step_inv _ wf_fields wf_field nul_free).
  - intro w. apply N.mod_upper_bound. discriminate.
  - exact I.
  - exact wf_fields_cons.
  - intros p n tc r v (Hn & Htc & Hr) (_ & _ & Hv). repeat split; auto. apply wf_push; assumption.
  - intros n tc l k v (Hn & Htc & Hl) (_ & _ & Hv). repeat split; auto. apply wf_items_replace; assumption.
  - intros n tc l k (Hn & Htc & Hl) _. repeat split; auto. apply wf_items_remove. exact Hl.
  - intros old new tc r (_ & H) Hn. exact (conj Hn H).
Qed.

Theorem api_reachable_wf (ops : list mop) : Forall op_ok ops -> wf_msg (run ops empty_msg).
Proof.
  apply (run_preserves wf_msg op_ok step_wf). split; [reflexivity|split; [constructor|exact I]].
Qed.
