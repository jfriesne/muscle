(* Msg/TmplHashProofs.v -- TemplateHashCode64 is a function of the shape: two Messages of the same shape (in
   particular a Message and the template CreateMessageTemplate makes for it) have the same template hash.
   (The converse -- equal hash implies equal shape -- is the injectivity premise of the templating gateway, C03.) *)
From Coq Require Import List NArith Bool Strings.Byte Lia.
From Muscle Require Import Gen.Consts Msg.MsgDefs Msg.MsgModel Msg.TmplModel
  Msg.MsgBytesProofs Msg.MsgRoundTrip Msg.TmplProofs.
Import ListNotations.
Local Open Scope N_scope.

Lemma u64_lt (n : N) : u64 n < two64.
Proof. unfold u64. apply N.mod_upper_bound. discriminate. Qed.

Lemma u64_small (n : N) : n < two64 -> u64 n = n.
Proof. intro H. unfold u64. apply N.mod_small. exact H. Qed.

Section HashProofs.
  Variable h64 : bytes -> N.

  Definition th_sub (tc : N) (r : repr) (c1 : N) : N * N :=
    match ftype_of_tc tc with TMessage => th_repr h64 r c1 | _ => (0, c1) end.

  Lemma th_fields_cons n tc r t cnt :
    th_fields h64 (FCons n tc r t) cnt =
    if flattenable tc then
      (u64 (u32 (cnt + 1) * (u64 (h64 n) + repr_count r * tc) + fst (th_sub tc r (u32 (cnt + 1)))
            + fst (th_fields h64 t (snd (th_sub tc r (u32 (cnt + 1)))))),
       snd (th_fields h64 t (snd (th_sub tc r (u32 (cnt + 1))))))
    else th_fields h64 t cnt.
  Proof. reflexivity. Qed.

  Lemma th_bound_all :
    (forall i cnt, fst (th_item h64 i cnt) < two64) /\
    (forall l cnt, fst (th_items h64 l cnt) < two64) /\
    (forall r cnt, fst (th_repr h64 r cnt) < two64) /\
    (forall fs cnt, fst (th_fields h64 fs cnt) < two64) /\
    (forall m cnt, fst (th_msg h64 m cnt) < two64).
  Proof.
    apply msg_mutind; try (intros; reflexivity).
    - (* IMsg *) intros m IH cnt. apply IH.
    - (* ICons *) intros i IHi t IHt cnt. cbn [th_items fst]. apply u64_lt.
    - (* RInline *) intros i IH cnt. apply IH.
    - (* RArray *) intros l IH cnt. apply IH.
    - (* FCons *)
      intros n tc r IHr t IHt cnt. rewrite th_fields_cons. destruct (flattenable tc); [cbn [fst]; apply u64_lt|apply IHt].
    - (* Msg *) intros w fs IH cnt. cbn [th_msg]. apply IH.
  Qed.

  Lemma th_items_cons i t cnt :
    th_items h64 (ICons i t) cnt =
    (u64 (fst (th_item h64 i cnt) + fst (th_items h64 t (snd (th_item h64 i cnt)))),
     snd (th_items h64 t (snd (th_item h64 i cnt)))).
  Proof. reflexivity. Qed.

  Lemma th_items_single (i : item) (cnt : N) : th_items h64 (ICons i INil) cnt = th_item h64 i cnt.
  Proof.
    rewrite th_items_cons. change (th_items h64 INil (snd (th_item h64 i cnt))) with (0, snd (th_item h64 i cnt)).
    cbn [fst snd]. rewrite N.add_0_r, u64_small by apply th_bound_all.
    symmetry. apply surjective_pairing.
  Qed.

  Lemma th_repr_items (r : repr) (cnt : N) : th_repr h64 r cnt = th_items h64 (repr_items r) cnt.
  Proof. destruct r as [i|l]; cbn [th_repr repr_items]; [symmetry; apply th_items_single|reflexivity]. Qed.

  Lemma th_strip_all :
    (forall i cnt, th_item h64 (strip_item i) cnt = th_item h64 i cnt) /\
    (forall l cnt, th_items h64 (strip_items l) cnt = th_items h64 l cnt) /\
    (forall r cnt, th_repr h64 (strip_repr r) cnt = th_repr h64 r cnt) /\
    (forall fs cnt, th_fields h64 (strip_fields fs) cnt = th_fields h64 fs cnt) /\
    (forall m cnt, th_msg h64 (strip_msg m) cnt = th_msg h64 m cnt).
  Proof.
    apply msg_mutind; try reflexivity.
    - (* IMsg *) intros m IH cnt. apply IH.
    - (* ICons *) intros i IHi t IHt cnt. cbn [strip_items]. rewrite !th_items_cons, IHi, IHt. reflexivity.
    - (* RInline *) intros i IH cnt. apply IH.
    - (* RArray *) intros l IH cnt. apply IH.
    - (* FCons *) intros n tc r IHr t IHt cnt. cbn [strip_fields].
      destruct (flattenable tc) eqn:Fl; rewrite !th_fields_cons, ?Fl; [|apply IHt].
      assert (E : th_sub tc (strip_repr r) (u32 (cnt + 1)) = th_sub tc r (u32 (cnt + 1))) by (unfold th_sub; destruct (ftype_of_tc tc); try reflexivity; apply IHr).
      rewrite repr_count_strip, E, IHt. reflexivity.
    - (* Msg *) intros w fs IH cnt. cbn [strip_msg th_msg]. apply IH.
  Qed.

  Lemma th_shape_all :
    (forall it lp cnt, shape_item it lp = true ->
       exists j lp', lp = ICons j lp' /\ th_item h64 it cnt = th_item h64 j cnt) /\
    (forall lt lp cnt, shape_items lt lp = true -> items_len lt = items_len lp ->
       th_items h64 lt cnt = th_items h64 lp cnt) /\
    (forall rt lp cnt, shape_repr TMessage rt lp = true -> repr_count rt = items_len lp ->
       th_repr h64 rt cnt = th_items h64 lp cnt) /\
    (forall ft fp cnt, shape_fields ft fp = true -> th_fields h64 ft cnt = th_fields h64 fp cnt) /\
    (forall t p cnt, shape_msg t p = true -> th_msg h64 t cnt = th_msg h64 p cnt).
  Proof.
    apply msg_mutind; try (intros ? lp cnt H; discriminate H).
    - (* IMsg *) intros tm IH lp cnt H. cbn [shape_item] in H.
      destruct lp as [|j lp']; [discriminate|]. destruct j as [| | |pm|]; try discriminate.
      exists (IMsg pm), lp'. split; [reflexivity|]. cbn [th_item]. apply IH. exact H.
    - intros lp cnt _ Hl. cbn [items_len] in Hl. destruct lp; [reflexivity|cbn [items_len] in Hl; lia].
    - (* ICons *)
      intros it IHi lt IHt lp cnt H Hl. cbn [shape_items] in H. apply andb_true_iff in H. destruct H as [H1 H2].
      destruct (IHi lp cnt H1) as (j & lp' & -> & E).
      cbn [items_tail] in H2. cbn [items_len] in Hl.
      rewrite !th_items_cons, E. rewrite (IHt lp' (snd (th_item h64 j cnt)) H2) by lia. reflexivity.
    - (* RInline *) intros it IHi lp cnt H Hc. cbn [shape_repr] in H. cbn [repr_count] in Hc.
      destruct (IHi lp cnt H) as (j & lp' & -> & E).
      cbn [items_len] in Hc. destruct lp'; [|cbn [items_len] in Hc; lia].
      cbn [th_repr]. rewrite th_items_single. exact E.
    - (* RArray *)
      intros lt IHl lp cnt H Hc. cbn [shape_repr] in H. cbn [repr_count] in Hc. cbn [th_repr]. apply IHl; assumption.
    - intros fp cnt H. cbn [shape_fields] in H. destruct fp; [reflexivity|discriminate].
    - (* FCons *) intros n tc rt IHr tl IHt fp cnt H. cbn [shape_fields] in H. rewrite th_fields_cons.
      destruct (flattenable tc) eqn:Fl; [|apply IHt; exact H].
      destruct fp as [|n2 tc2 rp tp]; [discriminate|].
      rewrite !andb_true_iff, bytes_eqb_eq, !N.eqb_eq in H. destruct H as ((((<- & <-) & H3) & H4) & H5).
      rewrite th_fields_cons, Fl, H3.
      assert (Esub : th_sub tc rt (u32 (cnt + 1)) = th_sub tc rp (u32 (cnt + 1))).
      { unfold th_sub. destruct (ftype_of_tc tc); try reflexivity.
        rewrite (th_repr_items rp). apply IHr; [exact H4|]. rewrite H3. destruct rp; reflexivity. }
      rewrite Esub. rewrite (IHt tp _ H5). reflexivity.
    - (* Msg *) intros wt ft IH [wp fp] cnt H. cbn [shape_msg] in H. cbn [th_msg]. apply IH. exact H.
  Qed.

  Theorem same_shape_same_hash (t p : msg) : same_shape t p = true -> tmpl_hash h64 t = tmpl_hash h64 p.
  Proof.
    intro H. unfold tmpl_hash, same_shape in *.
    rewrite (proj2 (proj2 (proj2 (proj2 th_shape_all))) t (strip_msg p) 0 H).
    rewrite (proj2 (proj2 (proj2 (proj2 th_strip_all))) p 0). reflexivity.
  Qed.

  (* the template made for a Message is cached under the Message's own hash *)
  Corollary created_template_hash (p : msg) : wf_msg p -> nz_msg p -> tmpl_hash h64 (tmpl_of_msg p) = tmpl_hash h64 p.
  Proof. intros Hw Hn. apply same_shape_same_hash. apply (created_template_ok p Hw Hn). Qed.

  (* The converse fails, whatever the string hash is: the counter-weighted sum cannot tell the item counts of
     two fields apart.  {a:int32[5], b:int32[6,7]} and {a:int32[1,2,3], b:int32[4]} both hash to
     h(a) + 2 h(b) + 5 * B_INT32_TYPE (finding F54: a templating gateway keyed on the hash alone sent the second
     against the cached template of the first). *)
  Definition i32 (a : byte) : item := IFix [a; x00; x00; x00].
  Definition coll_1 : msg :=
    Msg 0 (FCons [x61] c_B_INT32_TYPE (RInline (i32 x05))
          (FCons [x62] c_B_INT32_TYPE (RArray (ICons (i32 x06) (ICons (i32 x07) INil))) FNil)).
  Definition coll_2 : msg :=
    Msg 0 (FCons [x61] c_B_INT32_TYPE (RArray (ICons (i32 x01) (ICons (i32 x02) (ICons (i32 x03) INil))))
          (FCons [x62] c_B_INT32_TYPE (RInline (i32 x04)) FNil)).

  Lemma coll_sum (a b k1 k2 k3 k4 : N) :
    k1 + 2 * k2 = k3 + 2 * k4 ->
    u64 (1 * (u64 a + k1) + 0 + u64 (2 * (u64 b + k2) + 0 + 0)) = u64 (1 * (u64 a + k3) + 0 + u64 (2 * (u64 b + k4) + 0 + 0)).
  Proof.
    intro E. unfold u64.
    rewrite !N.add_mod_idemp_r by discriminate. f_equal. lia.
  Qed.

  Example hash_collision :
    wf_msg coll_1 /\ wf_msg coll_2 /\ nz_msg coll_1 /\ nz_msg coll_2 /\
    same_shape coll_1 coll_2 = false /\ same_shape coll_2 coll_1 = false /\
    tmpl_hash h64 coll_1 = tmpl_hash h64 coll_2.
  Proof.
    split; [|split; [|split; [|split; [|split; [|split]]]]].
    - vm_compute. repeat split; try reflexivity; try exact I; try (repeat constructor; cbn [In]; intuition discriminate).
    - vm_compute. repeat split; try reflexivity; try exact I; try (repeat constructor; cbn [In]; intuition discriminate).
    - vm_compute. repeat split; try reflexivity; try exact I; discriminate.
    - vm_compute. repeat split; try reflexivity; try exact I; discriminate.
    - vm_compute. reflexivity.
    - vm_compute. reflexivity.
    - unfold tmpl_hash. f_equal.
      assert (E : fst (th_msg h64 coll_1 0) = fst (th_msg h64 coll_2 0)).
      { unfold coll_1, coll_2.
        assert (Em : forall w fs c, th_msg h64 (Msg w fs) c = th_fields h64 fs c) by reflexivity.
        rewrite !Em. rewrite !th_fields_cons.
        change (flattenable c_B_INT32_TYPE) with true. cbv iota.
        change (th_sub c_B_INT32_TYPE) with (fun (_ : repr) (c : N) => (0, c)). cbv beta. cbn [fst snd th_fields].
        change (u32 (0 + 1)) with 1. change (u32 (1 + 1)) with 2.
        apply coll_sum. vm_compute. reflexivity. }
      rewrite E. reflexivity.
  Qed.
End HashProofs.
