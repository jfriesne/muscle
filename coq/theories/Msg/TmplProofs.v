(* Msg/TmplProofs.v -- the templated Message codec round-trips: for a payload that has the shape of the
   template (same flattenable fields, order, names, types, counts, recursively -- what TemplateHashCode64
   equality stands for in MessageIOGateway), TemplatedUnflatten (TemplatedFlatten payload) is the payload
   (modulo strip and norm, as for the ordinary codec), and TemplatedFlattenedSize is the byte count. *)
From Coq Require Import List NArith Bool Strings.Byte Lia Arith.
From Muscle Require Import Gen.Consts Msg.MsgDefs Msg.MsgModel Msg.MsgApi Msg.TmplModel
  Msg.MsgBytesProofs Msg.MsgSizeProofs Msg.MsgRoundTrip Msg.MsgApiProofs Msg.MsgExamples.
Import ListNotations.
Local Open Scope N_scope.

Lemma items_take_all (l : items) : items_take (items_len l) l = l.
Proof.
  induction l as [|i t IH]; cbn [items_len items_take]; [reflexivity|].
  rewrite (proj2 (N.eqb_neq _ _) (N.neq_succ_0 _)), N.pred_succ, IH. reflexivity.
Qed.

Lemma ft_fixed_elems (ft : ftype) : ft_flattenable ft = true -> ft_elems_fixed ft = ft_fixed ft.
Proof. destruct ft; intro H; try discriminate H; reflexivity. Qed.

Lemma size_repr_fixed (ft : ftype) (r : repr) : ft_fixed ft = true -> size_repr ft r = repr_count r * cpp_size ft.
Proof.
  intro Hx. destruct (size_tables_ok ft Hx) as (_ & Eu & _).
  destruct r as [i|l]; cbn [repr_count].
  - cbn [size_repr]. rewrite size_single_fixed by exact Hx. lia.
  - destruct ft; try discriminate Hx; cbn [size_repr]; rewrite Eu; reflexivity.
Qed.

Lemma repr_items_strip (r : repr) : repr_items (strip_repr r) = strip_items (repr_items r).
Proof. destruct r; reflexivity. Qed.

Lemma repr_count_strip (r : repr) : repr_count (strip_repr r) = repr_count r.
Proof. destruct r as [i|l]; [reflexivity|apply items_len_strip]. Qed.

Lemma flat_limited_all (ft : ftype) (r : repr) : flat_limited ft r (repr_count r) = flat_repr ft r.
Proof. destruct r as [i|l]; cbn [flat_limited repr_count]; [reflexivity|]. rewrite items_take_all. reflexivity. Qed.

(* ------------------------------------------------------------------ the size walk over String / raw items *)

Lemma walk_items_flat (ft : ftype) (l : items) (rest : bytes) (acc : N) :
  ft = TString \/ ft = TRaw -> wf_items ft l -> len (flat_items ft l) < two32 ->
  walk_items (items_cnt l) (flat_items ft l ++ rest) acc = Ok (acc + len (flat_items ft l)).
Proof.
  intros Hft. revert acc; induction l as [|i t IH]; intros acc Hw Hs.
  - cbn [items_cnt walk_items flat_items len]. rewrite N.add_0_r. reflexivity.
  - destruct Hw as [Hi Ht]. destruct (lp_item ft i Hft Hi) as [Ef _].
    cbn [items_cnt walk_items flat_items] in *. rewrite Ef, <- !app_assoc in *. rewrite !len_app, len_le32 in *.
    rewrite rd32_le32 by lia. cbn [bind fst snd].
    rewrite (proj2 (N.ltb_ge _ _)), dropN_app_exact, IH, sizeof_u32 by (assumption || rewrite ?len_app; lia).
    f_equal. lia.
Qed.

(* ------------------------------------------------------------------ finding the payload field of a template field *)

Fixpoint fin (n : bytes) (tc : N) (r : repr) (fs : fields) : Prop :=
  match fs with
  | FNil => False
  | FCons n' tc' r' t => (n = n' /\ tc = tc' /\ r = r') \/ fin n tc r t
  end.

Lemma fin_name n tc r fs : fin n tc r fs -> In n (fnames fs).
Proof.
  induction fs as [|n' tc' r' t IH]; cbn [fin fnames In]; [tauto|].
  intros [(-> & _ & _)|H]; [left; reflexivity|right; exact (IH H)].
Qed.

Lemma fin_flookup n tc r fs : NoDup (fnames fs) -> fin n tc r fs -> flookup n fs = Some (tc, r).
Proof.
  induction fs as [|n' tc' r' t IH]; cbn [fin fnames flookup]; [tauto|].
  intros Hnd H. inversion Hnd as [|? ? Hnin Hnd']; subst.
  destruct H as [(-> & -> & ->)|H].
  - rewrite bytes_eqb_refl. reflexivity.
  - destruct (bytes_eqb n n') eqn:E; [|exact (IH Hnd' H)].
    apply bytes_eqb_eq in E. subst n'. exfalso. apply Hnin. exact (fin_name _ _ _ _ H).
Qed.

(* the first flattenable field of a field list, and what follows it *)
Lemma strip_fields_cons_inv (fs : fields) n tc r t :
  strip_fields fs = FCons n tc r t ->
  exists rp fs', flattenable tc = true /\ r = strip_repr rp /\ t = strip_fields fs' /\
                 fin n tc rp fs /\ (forall n0 tc0 r0, fin n0 tc0 r0 fs' -> fin n0 tc0 r0 fs).
Proof.
  induction fs as [|n' tc' r' t' IH]; cbn [strip_fields]; [discriminate|].
  destruct (flattenable tc') eqn:Fl.
  - intro E. injection E as <- <- <- <-. exists r', t'. cbn [fin]. repeat split; auto.
  - intro E. destruct (IH E) as (rp & fs' & H1 & H2 & H3 & H4 & H5).
    exists rp, fs'. cbn [fin]. repeat split; auto.
Qed.

(* ------------------------------------------------------------------ what AddDataItem builds from a list of items *)

Definition repr_of (l : items) : repr := match l with ICons x INil => RInline x | _ => RArray l end.

Fixpoint push_all (cur : option repr) (l : items) : option repr :=
  match l with INil => cur | ICons i t => push_all (Some (push false cur i)) t end.

Lemma norm_repr_of (r : repr) : norm_repr r = repr_of (norm_items (repr_items r)).
Proof. destruct r as [i|[|i [|j t]]]; reflexivity. Qed.

Lemma push_all_app (l1 l2 : items) :
  l1 <> INil -> push_all (Some (repr_of l1)) l2 = Some (repr_of (items_app l1 l2)).
Proof.
  assert (A : forall a b c, items_app (items_app a b) c = items_app a (items_app b c))
    by (induction a as [|x a IH]; intros b c; cbn [items_app]; [|rewrite IH]; reflexivity).
  assert (Z : forall a, items_app a INil = a)
    by (induction a as [|x a IH]; cbn [items_app]; [|rewrite IH]; reflexivity).
  revert l1; induction l2 as [|v t IH]; intros l1 Hne; cbn [push_all]; [rewrite Z; reflexivity|].
  assert (E : push false (Some (repr_of l1)) v = repr_of (items_snoc l1 v))
    by (destruct l1 as [|a [|b l]]; [contradiction| |]; reflexivity).
  rewrite E, IH; unfold items_snoc; [rewrite A; reflexivity|destruct l1; discriminate].
Qed.

Lemma push_all_none (l : items) : l <> INil -> push_all None l = Some (repr_of l).
Proof.
  destruct l as [|v t]; [contradiction|]. intros _. cbn [push_all].
  change (push false None v) with (repr_of (ICons v INil)).
  rewrite push_all_app by discriminate. reflexivity.
Qed.

(* Message-typed fields hold at least one sub-Message, at every level (true of every Message the API builds;
   a template field with zero sub-Messages would leave an empty field behind in TemplatedUnflatten) *)
Fixpoint ne_msg (m : msg) : Prop :=
  match m with Msg _ fs => ne_fields fs end
with ne_fields (fs : fields) : Prop :=
  match fs with
  | FNil => True
  | FCons _ tc r t => (match ftype_of_tc tc with TMessage => 1 <= repr_count r | _ => True end) /\ ne_repr r /\ ne_fields t
  end
with ne_repr (r : repr) : Prop :=
  match r with RInline i => ne_item i | RArray l => ne_items l end
with ne_item (i : item) : Prop :=
  match i with IMsg m => ne_msg m | _ => True end
with ne_items (l : items) : Prop :=
  match l with INil => True | ICons i t => ne_item i /\ ne_items t end.

(* ------------------------------------------------------------------ the templated round trip *)

Definition TR_msg (t : msg) : Prop :=
  forall p, wf_msg t -> ne_msg t -> wf_msg p -> shape_msg t (strip_msg p) = true -> ts_msg t p < two32 ->
  exists b, tf_msg t p = Some b /\ len b = ts_msg t p /\
            forall rest, tu_msg t (b ++ rest) = Ok (norm_msg (strip_msg p), rest).

Definition TR_item (it : item) : Prop :=
  forall lp, wf_item TMessage it -> ne_item it -> wf_items TMessage lp ->
    shape_item it (strip_items lp) = true -> ts_item it lp < two32 ->
  exists b pm lp', lp = ICons (IMsg pm) lp' /\ tf_item it lp = Some b /\ len b = 4 + ts_item it lp /\
            forall cur rest, tu_sub it cur (b ++ rest) = Ok (Some (push false cur (IMsg (norm_msg (strip_msg pm)))), rest).

Definition TR_items (lt : items) : Prop :=
  forall lp, wf_items TMessage lt -> ne_items lt -> wf_items TMessage lp -> items_len lt = items_len lp ->
    shape_items lt (strip_items lp) = true -> ts_items lt lp + 4 * items_len lt < two32 ->
  exists b, tf_items lt lp = Some b /\ len b = 4 * items_len lt + ts_items lt lp /\
            forall cur rest, tu_subs lt cur (b ++ rest) = Ok (push_all cur (norm_items (strip_items lp)), rest).

Definition TR_repr (rt : repr) : Prop :=
  forall ft rp, ft_flattenable ft = true -> wf_repr ft rt -> ne_repr rt ->
    (match ft with TMessage => 1 <= repr_count rt | _ => True end) ->
    wf_repr ft rp -> repr_count rt = repr_count rp ->
    shape_repr ft rt (strip_items (repr_items rp)) = true -> ts_field ft rt (Some rp) < two32 ->
  exists b, tf_field ft rt (Some rp) = Some b /\ len b = ts_field ft rt (Some rp) /\
            forall rest, tu_field ft rt (b ++ rest) = Ok (norm_repr (strip_repr rp), rest).

Definition TR_fields (ft : fields) : Prop :=
  forall all fps, wf_fields ft -> ne_fields ft -> NoDup (fnames ft) ->
    NoDup (fnames all) -> wf_fields all -> (forall n tc r, fin n tc r fps -> fin n tc r all) ->
    shape_fields ft (strip_fields fps) = true -> ts_fields ft all < two32 ->
  exists b, tf_fields ft all = Some b /\ len b = ts_fields ft all /\
            forall acc rest, (forall n, In n (fnames ft) -> flookup n acc = None) ->
              tu_fields ft acc (b ++ rest) = Ok (fapp acc (norm_fields (strip_fields fps)), rest).

Lemma strip_items_cons_inv (lp : items) i t : strip_items lp = ICons i t -> exists j lp', lp = ICons j lp' /\ i = strip_item j /\ t = strip_items lp'.
Proof. destruct lp as [|j lp']; cbn [strip_items]; [discriminate|]. intro E. injection E as <- <-. eauto. Qed.

Lemma items_tail_strip (lp : items) : items_tail (strip_items lp) = strip_items (items_tail lp).
Proof. destruct lp; reflexivity. Qed.

(* ------------------------------------------------------------------ template fields of leaf type *)

Lemma repr_count_items (r : repr) : repr_count r = items_len (repr_items r).
Proof. destruct r; reflexivity. Qed.

Lemma wf_repr_items (ft : ftype) (r : repr) : wf_repr ft r -> wf_items ft (repr_items r).
Proof. destruct r; cbn [wf_repr repr_items wf_items]; auto. Qed.

Lemma items_cnt_repr (r : repr) : N.to_nat (repr_count r) = items_cnt (repr_items r).
Proof. rewrite repr_count_items, items_len_cnt. apply Nat2N.id. Qed.

Lemma items_take_repr (r : repr) : items_take (repr_count r) (repr_items r) = repr_items r.
Proof. rewrite repr_count_items. apply items_take_all. Qed.

Lemma tmpl_src_same (rt rp : repr) : repr_count rt = repr_count rp -> tmpl_src_items rt rp = repr_items rp.
Proof. intro Hc. unfold tmpl_src_items. rewrite Hc, N.leb_refl. apply items_take_repr. Qed.

(* the sum TemplatedFlattenedSize forms over the items of a String / raw field: GetItemSize is the payload length *)
Fixpoint var_sum (l : items) : N := match l with INil => 0 | ICons i t => var_item_size i + var_sum t end.

Lemma flat_items_var (ft : ftype) (l : items) :
  ft = TString \/ ft = TRaw -> wf_items ft l -> len (flat_items ft l) = 4 * items_len l + var_sum l.
Proof.
  intros Hft. induction l as [|i t IH]; intro Hw; cbn [flat_items items_len var_sum]; [reflexivity|].
  destruct Hw as [Hi Ht]. destruct (lp_item ft i Hft Hi) as [-> _]. rewrite !len_app, len_le32, (IH Ht).
  replace (var_item_size i) with (len (lp_payload i)); [lia|].
  destruct Hft as [-> | ->]; destruct i; cbn [wf_item] in Hi; try contradiction;
    [symmetry; apply str_flat_size_len|reflexivity].
Qed.

(* a String / raw field is written as its count word followed by its items, whatever its state *)
Lemma flat_repr_var (ft : ftype) (r : repr) :
  ft = TString \/ ft = TRaw -> wf_repr ft r ->
  flat_repr ft r = le32 (repr_count r) ++ flat_items ft (repr_items r) /\
  size_repr ft r = (1 + repr_count r) * 4 + var_sum (repr_items r).
Proof.
  intros Hft Hw.
  assert (Hf : ft_flattenable ft = true) by (destruct Hft as [-> | ->]; reflexivity).
  assert (E : flat_repr ft r = le32 (repr_count r) ++ flat_items ft (repr_items r)).
  { destruct r as [i|l]; [|destruct Hft as [-> | ->]; reflexivity].
    cbn [flat_repr]. rewrite <- (flat_repr_singleton ft i Hf Hw). destruct Hft as [-> | ->]; reflexivity. }
  split; [exact E|].
  rewrite <- (flat_repr_len ft r Hf Hw), E, len_app, len_le32, flat_items_var, <- repr_count_items
    by auto using wf_repr_items. lia.
Qed.

Lemma tf_field_leaf ft rt pay : ft <> TMessage ->
  tf_field ft rt pay =
  match pay with
  | None => Some (flat_repr ft rt)
  | Some rp => if repr_count rt <=? repr_count rp then Some (flat_limited ft rp (repr_count rt))
               else Some (flat_repr ft (RArray (tmpl_src_items rt rp)))
  end.
Proof. intro H. destruct ft; try congruence; destruct rt; reflexivity. Qed.

Lemma ts_field_leaf ft rt pay : ft <> TMessage ->
  ts_field ft rt pay =
  match pay with
  | None => size_repr ft rt
  | Some rp => if ft_elems_fixed ft then size_repr ft rt
               else (1 + repr_count rt) * c_SIZEOF_uint32 + var_sum (tmpl_src_items rt rp)
  end.
Proof. intro H. destruct ft; try congruence; destruct rt; reflexivity. Qed.

Lemma tu_field_leaf ft rt w : ft <> TMessage ->
  tu_field ft rt w =
  let window total := bind (dec_field no_inner ft (takeN total w)) (fun q => Ok (fst q, snd q ++ dropN total w)) in
  if ft_elems_fixed ft then if len w <? size_repr ft rt then Err else window (size_repr ft rt)
  else bind (rd32 w) (fun pc =>
         if negb (fst pc =? repr_count rt) then Err
         else bind (walk_items (N.to_nat (repr_count rt)) (snd pc) c_SIZEOF_uint32) window).
Proof. intro H. destruct ft; try congruence; destruct rt; reflexivity. Qed.

Lemma tr_field_leaf (ft : ftype) (rt rp : repr) :
  ft_flattenable ft = true -> ft <> TMessage -> wf_repr ft rp -> repr_count rt = repr_count rp ->
  ts_field ft rt (Some rp) < two32 ->
  exists b, tf_field ft rt (Some rp) = Some b /\ len b = ts_field ft rt (Some rp) /\
            forall rest, tu_field ft rt (b ++ rest) = Ok (norm_repr (strip_repr rp), rest).
Proof.
  intros Hf Hm Hwp Hc Hs. pose proof (flat_repr_len ft rp Hf Hwp) as Hl.
  rewrite (strip_repr_leaf ft rp Hm Hf Hwp), tf_field_leaf, ts_field_leaf in * by exact Hm.
  rewrite Hc, N.leb_refl, flat_limited_all, (tmpl_src_same _ _ Hc), (ft_fixed_elems ft Hf) in *.
  (* either way the templated size is the payload field's own size, and the reader is handed exactly its bytes *)
  exists (flat_repr ft rp). split; [reflexivity|].
  destruct (ft_fixed ft) eqn:Hx.
  - assert (Esz : size_repr ft rt = size_repr ft rp) by (rewrite !size_repr_fixed, Hc by exact Hx; reflexivity).
    rewrite Esz in *. split; [exact Hl|].
    intro rest. rewrite tu_field_leaf, (ft_fixed_elems ft Hf), Hx, Esz, <- Hl by exact Hm. cbv zeta.
    rewrite (proj2 (N.ltb_ge _ _)), takeN_app_exact, dropN_app_exact, dec_field_leaf
      by (auto; rewrite ?len_app; lia). reflexivity.
  - assert (Hft : ft = TString \/ ft = TRaw) by (destruct (ft_cases ft Hf) as [?|[?|?]]; congruence || auto).
    destruct (flat_repr_var ft rp Hft Hwp) as [Efl Esr]. rewrite sizeof_u32, <- Esr in *. split; [exact Hl|].
    intro rest. rewrite tu_field_leaf, (ft_fixed_elems ft Hf), Hx by exact Hm. cbv zeta.
    rewrite Efl at 1. rewrite <- app_assoc, rd32_le32 by (rewrite Esr in Hs; lia). cbn [bind fst snd].
    rewrite Hc, N.eqb_refl, items_cnt_repr, walk_items_flat by
      (auto using wf_repr_items; rewrite <- Hl, Efl, len_app, len_le32 in Hs; lia).
    cbn [negb bind]. replace (c_SIZEOF_uint32 + _) with (len (flat_repr ft rp)) by (rewrite Efl, len_app, len_le32; reflexivity).
    rewrite takeN_app_exact, dropN_app_exact, dec_field_leaf by auto. reflexivity.
Qed.

Lemma tmpl_roundtrip_all :
  (forall i, TR_item i) /\ (forall l, TR_items l) /\ (forall r, TR_repr r) /\ (forall fs, TR_fields fs) /\ (forall m, TR_msg m).
Proof.
  apply msg_mutind; try (intros ? lp Hw; cbn [wf_item] in Hw; contradiction).
  - (* IMsg tm *)
    intros tm IH lp Hwt Hne Hwp Hsh Hs. cbn [wf_item] in Hwt. cbn [ne_item] in Hne.
    cbn [shape_item] in Hsh.
    destruct (strip_items lp) as [|si sl] eqn:Es; [discriminate|].
    destruct si as [| | |spm|]; try discriminate.
    destruct (strip_items_cons_inv lp _ _ Es) as (j & lp' & -> & Ej & _).
    destruct j as [| | |pm|]; cbn [strip_item] in Ej; try discriminate. injection Ej as ->.
    destruct Hwp as [Hwpm _]. cbn [wf_item] in Hwpm.
    cbn [ts_item tf_item tu_sub items_head_msg] in *.
    destruct (IH pm Hwt Hne Hwpm Hsh Hs) as (b & Eb & Lb & Hu).
    exists (le32 (ts_msg tm pm) ++ b), pm, lp'. rewrite Eb.
    split; [reflexivity|]. split; [reflexivity|]. split; [rewrite len_app, len_le32, Lb; reflexivity|].
    intros cur rest. rewrite <- app_assoc, rd32_le32 by exact Hs. cbn [bind fst snd].
    rewrite <- Lb, (proj2 (N.ltb_ge _ _)), takeN_app_exact, dropN_app_exact by (rewrite len_app; lia).
    rewrite <- (app_nil_r b), (Hu []). reflexivity.
  - (* INil *)
    intros lp _ _ Hwp Hl _ _. cbn [items_len] in Hl. destruct lp; [|cbn [items_len] in Hl; lia].
    exists []. split; [reflexivity|]. split; [reflexivity|]. intros cur rest. reflexivity.
  - (* ICons *)
    intros it IHi lt IHt lp [Hwi Hwt] [Hni Hnt] Hwp Hl Hsh Hs.
    cbn [shape_items] in Hsh. apply andb_true_iff in Hsh. destruct Hsh as [Hsh1 Hsh2].
    cbn [items_len ts_items tf_items tu_subs] in *.
    destruct (IHi lp Hwi Hni Hwp Hsh1) as (b1 & pm & lp' & -> & Eb1 & Lb1 & Hu1); [lia|].
    rewrite items_tail_strip in Hsh2. cbn [items_tail items_len] in *.
    destruct Hwp as [Hwpm Hwp'].
    destruct (IHt lp' Hwt Hnt Hwp') as (b2 & Eb2 & Lb2 & Hu2); [lia|exact Hsh2|lia|].
    exists (b1 ++ b2). rewrite Eb1, Eb2.
    split; [reflexivity|]. split; [rewrite len_app, Lb1, Lb2; lia|].
    intros cur rest. rewrite <- app_assoc, Hu1. cbn [bind fst snd]. rewrite Hu2. reflexivity.
  - (* RInline it: a template field of one item *)
    intros it IHi ft rp Hf Hwt Hnt Hc1 Hwp Hc Hsh Hs.
    destruct ft; try (apply tr_field_leaf; [exact Hf|congruence|exact Hwp|exact Hc|exact Hs]).
    cbn [wf_repr] in Hwt. cbn [ne_repr] in Hnt. cbn [shape_repr] in Hsh.
    cbn [ts_field tf_field tu_field ft_elems_fixed repr_count] in *. rewrite sizeof_u32 in *.
    destruct (IHi (repr_items rp) Hwt Hnt (wf_repr_items _ rp Hwp) Hsh) as (b & pm & lp' & Elp & Eb & Lb & Hu); [lia|].
    exists (le32 1 ++ b). rewrite Eb.
    split; [reflexivity|]. split; [rewrite len_app, len_le32, Lb; lia|].
    intro rest. rewrite <- app_assoc, rd32_le32 by reflexivity. cbn [bind fst snd N.eqb Pos.eqb negb].
    rewrite Hu. cbn [bind fst snd push].
    (* the payload has one item: inline, or an array of one *)
    rewrite norm_repr_of, repr_items_strip, Elp.
    assert (lp' = INil).
    { destruct rp as [j|l]; cbn [repr_items repr_count] in *; [injection Elp as _ <-; reflexivity|].
      subst l. cbn [items_len] in Hc. destruct lp'; [reflexivity|cbn [items_len] in Hc; lia]. }
    subst lp'. reflexivity.
  - (* RArray lt *)
    intros lt IHl ft rp Hf Hwt Hnt Hc1 Hwp Hc Hsh Hs.
    destruct ft; try (apply tr_field_leaf; [exact Hf|congruence|exact Hwp|exact Hc|exact Hs]).
    cbn [wf_repr] in Hwt. cbn [ne_repr] in Hnt. cbn [shape_repr] in Hsh.
    cbn [ts_field tf_field tu_field ft_elems_fixed repr_count] in *. rewrite sizeof_u32 in *.
    rewrite repr_count_items in Hc.
    destruct (IHl (repr_items rp) Hwt Hnt (wf_repr_items _ rp Hwp) Hc Hsh) as (b & Eb & Lb & Hu); [lia|].
    exists (le32 (items_len lt) ++ b). rewrite Eb.
    split; [reflexivity|]. split; [rewrite len_app, len_le32, Lb; lia|].
    intro rest. rewrite <- app_assoc, rd32_le32 by lia. cbn [bind fst snd]. rewrite N.eqb_refl. cbn [negb].
    rewrite Hu. cbn [bind fst snd].
    rewrite push_all_none, norm_repr_of, repr_items_strip; [reflexivity|].
    destruct (repr_items rp); [cbn [items_len] in Hc; lia|discriminate].
  - (* FNil *)
    intros all fps _ _ _ _ _ _ Hsh _. cbn [shape_fields] in Hsh.
    destruct (strip_fields fps) eqn:E; [|discriminate].
    exists []. cbn [tf_fields ts_fields tu_fields len app norm_fields].
    split; [reflexivity|]. split; [reflexivity|]. intros acc rest _. rewrite fapp_nil_r. reflexivity.
  - (* FCons *)
    intros n tc rt IHr tl IHt all fps (Hn & Htc & Hrt & Htl) (Hc1 & Hnr & Hntl) Hnd Hnda Hwa Hsub Hsh Hs.
    cbn [fnames] in Hnd. inversion Hnd as [|? ? Hnin Hnd']; subst.
    cbn [shape_fields ts_fields tf_fields tu_fields] in *.
    destruct (flattenable tc) eqn:Fl.
    2:{ (* a non-flattenable template field is skipped by all three functions *)
        destruct (IHt all fps Htl Hntl Hnd' Hnda Hwa Hsub Hsh) as (b & Eb & Lb & Hu); [lia|].
        exists b. split; [exact Eb|]. split; [exact Lb|].
        intros acc rest Hacc. apply Hu. intros k Hk. apply Hacc. right. exact Hk. }
    destruct (strip_fields fps) as [|n2 tc2 sr st] eqn:Es; [discriminate|].
    rewrite !andb_true_iff, bytes_eqb_eq, !N.eqb_eq in Hsh. destruct Hsh as ((((<- & <-) & Hsh3) & Hsh4) & Hsh5).
    destruct (strip_fields_cons_inv fps _ _ _ _ Es) as (rp & fps' & _ & -> & -> & Hfin & Hsub').
    pose proof (Hsub _ _ _ Hfin) as Hfa.
    pose proof (fin_flookup _ _ _ _ Hnda Hfa) as Elk.
    destruct (flookup_wf _ _ _ _ Elk Hwa) as (_ & Hwrp).
    assert (Epay : payload_for n tc all = Some rp) by (unfold payload_for; rewrite Elk, N.eqb_refl; reflexivity).
    rewrite Epay in *. rewrite repr_count_strip in Hsh3. rewrite repr_items_strip in Hsh4.
    destruct (IHr (ftype_of_tc tc) rp Fl Hrt Hnr Hc1 Hwrp Hsh3 Hsh4) as (b1 & Eb1 & Lb1 & Hu1); [lia|].
    destruct (IHt all fps' Htl Hntl Hnd' Hnda Hwa) as (b2 & Eb2 & Lb2 & Hu2); [auto|exact Hsh5|lia|].
    exists (b1 ++ b2). rewrite Eb1, Eb2.
    split; [reflexivity|]. split; [rewrite len_app, Lb1, Lb2; reflexivity|].
    intros acc rest Hacc.
    rewrite (Hacc n (or_introl eq_refl)), <- app_assoc, Hu1. cbn [bind fst snd].
    rewrite Hu2; [cbn [norm_fields]; rewrite fsnoc_fapp; reflexivity|].
    intros k Hk. apply flookup_fsnoc_other; [|apply Hacc; right; exact Hk]. intro E. subst k. contradiction.
  - (* Msg *)
    intros wt ft IH [wp fp] (Hwt & Hndt & Hft) Hne (Hwp & Hndp & Hfp) Hsh Hs.
    cbn [shape_msg strip_msg ts_msg tf_msg tu_msg ne_msg] in *. rewrite sizeof_u32 in *.
    destruct (IH fp fp Hft Hne Hndt Hndp Hfp) as (b & Eb & Lb & Hu); [auto|exact Hsh|lia|].
    exists (le32 wp ++ b). rewrite Eb.
    split; [reflexivity|]. split; [rewrite len_app, len_le32, Lb; reflexivity|].
    intro rest. rewrite <- app_assoc, rd32_le32 by exact Hwp. cbn [bind fst snd].
    rewrite Hu by reflexivity. reflexivity.
Qed.

(* ------------------------------------------------------------------ the theorems *)

Theorem tmpl_roundtrip (t p : msg) :
  wf_msg t -> ne_msg t -> wf_msg p -> same_shape t p = true -> tmpl_flattened_size t p < two32 ->
  exists b, tmpl_flatten t p = Some b /\ len b = tmpl_flattened_size t p /\ tmpl_unflatten t b = Ok (rt p).
Proof.
  intros Hwt Hne Hwp Hsh Hs.
  destruct (proj2 (proj2 (proj2 (proj2 tmpl_roundtrip_all))) t p Hwt Hne Hwp Hsh Hs) as (b & Eb & Lb & Hu).
  exists b. split; [exact Eb|]. split; [exact Lb|].
  unfold tmpl_unflatten. rewrite <- (app_nil_r b), Hu. reflexivity.
Qed.

(* non-vacuity: the template CreateMessageTemplate makes for the example Message satisfies the premises *)
Example ex_tmpl :
  wf_msg (tmpl_of_msg ex_msg) /\ ne_msg (tmpl_of_msg ex_msg) /\ same_shape (tmpl_of_msg ex_msg) ex_msg = true /\
  tmpl_flattened_size (tmpl_of_msg ex_msg) ex_msg < two32 /\
  (exists b, tmpl_flatten (tmpl_of_msg ex_msg) ex_msg = Some b /\ tmpl_unflatten (tmpl_of_msg ex_msg) b = Ok (rt ex_msg)).
Proof.
  assert (Hw : wf_msg (tmpl_of_msg ex_msg)).
  { vm_compute. repeat split; try reflexivity; try exact I; try (repeat constructor; cbn [In]; intuition discriminate). }
  assert (Hn : ne_msg (tmpl_of_msg ex_msg)) by (vm_compute; repeat split; discriminate).
  assert (Hs : same_shape (tmpl_of_msg ex_msg) ex_msg = true) by (vm_compute; reflexivity).
  assert (Hb : tmpl_flattened_size (tmpl_of_msg ex_msg) ex_msg < two32) by (vm_compute; reflexivity).
  split; [exact Hw|]. split; [exact Hn|]. split; [exact Hs|]. split; [exact Hb|].
  destruct (tmpl_roundtrip _ _ Hw Hn (proj1 ex_wf) Hs Hb) as (b & E1 & _ & E2). eauto.
Qed.

(* ------------------------------------------------------------------ the template the library creates *)

(* every field holds at least one item, at every level: true of every Message the API builds (a field
   disappears with its last item); only Messages parsed from contrived bytes can have empty fields *)
Fixpoint nz_msg (m : msg) : Prop :=
  match m with Msg _ fs => nz_fields fs end
with nz_fields (fs : fields) : Prop :=
  match fs with FNil => True | FCons _ _ r t => 1 <= repr_count r /\ nz_repr r /\ nz_fields t end
with nz_repr (r : repr) : Prop :=
  match r with RInline i => nz_item i | RArray l => nz_items l end
with nz_item (i : item) : Prop :=
  match i with IMsg m => nz_msg m | _ => True end
with nz_items (l : items) : Prop :=
  match l with INil => True | ICons i t => nz_item i /\ nz_items t end.

Fixpoint rep_items (n : nat) (v : item) : items := match n with O => INil | S k => ICons v (rep_items k v) end.

Lemma push_n_all (n : nat) (cur : option repr) (v : item) : push_n n cur v = push_all cur (rep_items n v).
Proof. revert cur; induction n as [|k IH]; intro cur; cbn [push_n rep_items push_all]; [reflexivity|apply IH]. Qed.

Lemma rep_items_len (n : nat) (v : item) : items_len (rep_items n v) = N.of_nat n.
Proof. induction n as [|k IH]; cbn [rep_items items_len]; [reflexivity|]. rewrite IH. lia. Qed.

Lemma repr_of_count (l : items) : repr_count (repr_of l) = items_len l.
Proof. destruct l as [|a [|b t]]; reflexivity. Qed.

Lemma wf_repr_of (ft : ftype) (l : items) : wf_items ft l -> wf_repr ft (repr_of l).
Proof. destruct l as [|a [|b t]]; cbn [repr_of wf_repr wf_items]; tauto. Qed.

Lemma ne_repr_of (l : items) : ne_items l -> ne_repr (repr_of l).
Proof. destruct l as [|a [|b t]]; cbn [repr_of ne_repr ne_items]; tauto. Qed.

Lemma wf_rep_items (ft : ftype) (n : nat) (v : item) : wf_item ft v -> wf_items ft (rep_items n v).
Proof. intro H. induction n as [|k IH]; cbn [rep_items wf_items]; auto. Qed.

Lemma ne_rep_items (n : nat) (v : item) : ne_item v -> ne_items (rep_items n v).
Proof. intro H. induction n as [|k IH]; cbn [rep_items ne_items]; auto. Qed.

Lemma push_n_repr (n : N) (v : item) : 1 <= n -> push_n (N.to_nat n) None v = Some (repr_of (rep_items (N.to_nat n) v)).
Proof.
  intro H. rewrite push_n_all, push_all_none; [reflexivity|].
  destruct (N.to_nat n) eqn:E; [lia|cbn [rep_items]; discriminate].
Qed.

(* what CreateMessageTemplate fills a leaf field (other than raw) with: zero bytes, Rect(), the empty String *)
Definition default_item (ft : ftype) : item :=
  match ft with
  | TString => IStr []
  | TRect => IFix default_rect
  | _ => IFix (zeros (N.to_nat (cpp_size ft)))
  end.

Lemma default_item_wf (ft : ftype) :
  ft_flattenable ft = true -> ft <> TMessage -> ft <> TRaw -> wf_item ft (default_item ft) /\ ne_item (default_item ft).
Proof. destruct ft; intros H1 H2 H3; try discriminate H1; try congruence; vm_compute; auto. Qed.

Lemma tmpl_of_repr_default (ft : ftype) (r : repr) :
  ft_flattenable ft = true -> ft <> TMessage -> ft <> TRaw ->
  tmpl_of_repr ft r = push_n (N.to_nat (repr_count r)) None (default_item ft).
Proof. destruct ft; intros H1 H2 H3; try discriminate H1; try congruence; destruct r; reflexivity. Qed.

Fixpoint tmpl_items (l : items) : items :=
  match l with
  | INil => INil
  | ICons (IMsg m) t => ICons (IMsg (tmpl_of_msg m)) (tmpl_items t)
  | ICons _ t => tmpl_items t
  end.

Lemma shape_repr_of (lt lp : items) :
  lt <> INil -> shape_items lt lp = true -> shape_repr TMessage (repr_of lt) lp = true.
Proof.
  destruct lt as [|a [|b t]]; intros Hne H; [contradiction| |exact H].
  cbn [repr_of shape_repr]. cbn [shape_items] in H. apply andb_true_iff in H. tauto.
Qed.

Lemma shape_repr_leaf (ft : ftype) (r : repr) (lp : items) : ft <> TMessage -> shape_repr ft r lp = true.
Proof. intro H. destruct r; destruct ft; try reflexivity; congruence. Qed.

Lemma created_leaf (ft : ftype) (r : repr) (lp : items) :
  ft_flattenable ft = true -> ft <> TMessage -> 1 <= repr_count r ->
  exists r', tmpl_of_repr ft r = Some r' /\ repr_count r' = repr_count r /\
             shape_repr ft r' lp = true /\ wf_repr ft r' /\ ne_repr r'.
Proof.
  intros Hf Hm Hc. destruct (ftype_eq_dec ft TRaw) as [-> | Hr].
  - exists (match r with RInline _ => RInline (IRaw []) | RArray l => RArray (items_map_raw_empty l) end).
    destruct r as [i|l]; cbn [tmpl_of_repr repr_count]; [repeat split; exact I|].
    assert (Hm' : items_len (items_map_raw_empty l) = items_len l /\ wf_items TRaw (items_map_raw_empty l) /\
                  ne_items (items_map_raw_empty l)).
    { clear. induction l as [|x t IH]; cbn [items_map_raw_empty items_len wf_items ne_items wf_item ne_item]; [auto|].
      destruct IH as (-> & W & N0). auto. }
    destruct Hm' as (L & W & N0). auto 6.
  - destruct (default_item_wf ft Hf Hm Hr) as [W N0].
    rewrite tmpl_of_repr_default, push_n_repr by assumption. eexists. split; [reflexivity|].
    rewrite repr_of_count, rep_items_len, N2Nat.id.
    auto 6 using shape_repr_leaf, wf_repr_of, wf_rep_items, ne_repr_of, ne_rep_items.
Qed.

Lemma created_template_all :
  (forall i cur, wf_item TMessage i -> nz_item i ->
     exists m, i = IMsg m /\ tmpl_of_item i cur = Some (push false cur (IMsg (tmpl_of_msg m))) /\
               shape_msg (tmpl_of_msg m) (strip_msg m) = true /\ wf_msg (tmpl_of_msg m) /\ ne_msg (tmpl_of_msg m)) /\
  (forall l cur, wf_items TMessage l -> nz_items l ->
     tmpl_of_items l cur = push_all cur (tmpl_items l) /\ items_len (tmpl_items l) = items_len l /\
     shape_items (tmpl_items l) (strip_items l) = true /\ wf_items TMessage (tmpl_items l) /\ ne_items (tmpl_items l)) /\
  (forall r ft, ft_flattenable ft = true -> wf_repr ft r -> nz_repr r -> 1 <= repr_count r ->
     exists r', tmpl_of_repr ft r = Some r' /\ repr_count r' = repr_count r /\
                shape_repr ft r' (strip_items (repr_items r)) = true /\ wf_repr ft r' /\ ne_repr r') /\
  (forall fs, wf_fields fs -> nz_fields fs ->
     shape_fields (tmpl_of_fields fs) (strip_fields fs) = true /\ wf_fields (tmpl_of_fields fs) /\
     ne_fields (tmpl_of_fields fs)) /\
  (forall m, wf_msg m -> nz_msg m ->
     shape_msg (tmpl_of_msg m) (strip_msg m) = true /\ wf_msg (tmpl_of_msg m) /\ ne_msg (tmpl_of_msg m)).
Proof.
  apply msg_mutind.
  - (* IFix *) intros bs cur H. cbn [wf_item] in H. contradiction.
  - (* IStr *) intros bs cur H. cbn [wf_item] in H. contradiction.
  - (* IRaw *) intros bs cur H. cbn [wf_item] in H. contradiction.
  - (* IMsg *) intros m IH cur Hw Hn. cbn [wf_item] in Hw. cbn [nz_item] in Hn.
    destruct (IH Hw Hn) as (H1 & H2 & H3). exists m. cbn [tmpl_of_item]. auto.
  - (* IOpaque *) intros id cur H. cbn [wf_item] in H. contradiction.
  - (* INil *) intros cur _ _. cbn [tmpl_of_items tmpl_items push_all items_len strip_items shape_items wf_items ne_items]. auto.
  - (* ICons *) intros i IHi t IHt cur [Hwi Hwt] [Hni Hnt].
    destruct (IHi cur Hwi Hni) as (m & -> & E & S1 & W1 & N1).
    destruct (IHt (Some (push false cur (IMsg (tmpl_of_msg m)))) Hwt Hnt) as (E2 & L2 & S2 & W2 & N2).
    cbn [tmpl_of_items tmpl_of_item tmpl_items push_all items_len strip_items strip_item shape_items shape_item items_tail wf_items wf_item ne_items ne_item].
    rewrite E2, L2, S1, S2. repeat split; try reflexivity; assumption.
  - (* RInline *)
    intros i IHi ft Hf Hw Hn Hc. cbn [wf_repr] in Hw. cbn [nz_repr] in Hn.
    destruct (ftype_eq_dec ft TMessage) as [-> | Hm]; [|apply created_leaf; assumption].
    destruct (IHi None Hw Hn) as (m & -> & E & S1 & W1 & N1).
    exists (RInline (IMsg (tmpl_of_msg m))). cbn [tmpl_of_item push] in E. auto 6.
  - (* RArray *)
    intros l IHl ft Hf Hw Hn Hc. cbn [wf_repr] in Hw. cbn [nz_repr] in Hn. cbn [repr_count] in Hc.
    destruct (ftype_eq_dec ft TMessage) as [-> | Hm]; [|apply created_leaf; assumption].
    destruct (IHl None Hw Hn) as (E & L & S & W & N0).
    assert (Hne : tmpl_items l <> INil) by (intro E0; rewrite E0 in L; cbn [items_len] in L; lia).
    exists (repr_of (tmpl_items l)). cbn [tmpl_of_repr repr_items]. rewrite E, push_all_none, repr_of_count by exact Hne.
    auto 7 using shape_repr_of, wf_repr_of, ne_repr_of.
  - (* FNil *) intros _ _. cbn. auto.
  - (* FCons *)
    intros n tc r IHr t IHt (Hn & Htc & Hr & Ht) (Hc & Hnr & Hnt).
    destruct (IHt Ht Hnt) as (S2 & W2 & N2).
    cbn [tmpl_of_fields strip_fields]. unfold flattenable.
    destruct (ft_flattenable (ftype_of_tc tc)) eqn:Fl; [|auto].
    destruct (IHr (ftype_of_tc tc) Fl Hr Hnr Hc) as (r' & E & C & S1 & W1 & N1).
    rewrite E. cbn [shape_fields wf_fields ne_fields]. unfold flattenable.
    rewrite Fl, bytes_eqb_refl, (N.eqb_refl tc), repr_count_strip, repr_items_strip, S1, S2, C, N.eqb_refl.
    repeat split; auto. destruct (ftype_of_tc tc); try exact I. exact Hc.
  - (* Msg *)
    intros w fs IH (Hw & Hnd & Hfs) Hn. cbn [nz_msg] in Hn.
    destruct (IH Hfs Hn) as (S1 & W1 & N1).
    cbn [tmpl_of_msg strip_msg shape_msg wf_msg ne_msg]. repeat split; auto.
    revert Hnd. apply (subtable_names tmpl_of_fields); [reflexivity|].
    intros n tc r t. cbn [tmpl_of_fields]. destruct (flattenable tc); [|auto]. destruct (tmpl_of_repr _ r); eauto.
Qed.

(* the template CreateMessageTemplate makes for a Message satisfies the premises of the round trip *)
Theorem created_template_ok (p : msg) :
  wf_msg p -> nz_msg p ->
  same_shape (tmpl_of_msg p) p = true /\ wf_msg (tmpl_of_msg p) /\ ne_msg (tmpl_of_msg p).
Proof. intros Hw Hn. exact (proj2 (proj2 (proj2 (proj2 created_template_all))) p Hw Hn). Qed.

Corollary tmpl_roundtrip_created (p : msg) :
  wf_msg p -> nz_msg p -> tmpl_flattened_size (tmpl_of_msg p) p < two32 ->
  exists b, tmpl_flatten (tmpl_of_msg p) p = Some b /\ len b = tmpl_flattened_size (tmpl_of_msg p) p /\
            tmpl_unflatten (tmpl_of_msg p) b = Ok (rt p).
Proof.
  intros Hw Hn Hs. destruct (created_template_ok p Hw Hn) as (S1 & W1 & N1).
  apply tmpl_roundtrip; assumption.
Qed.

(* ------------------------------------------------------------------ the API never leaves an empty field behind *)

Definition op_nz (o : mop) : Prop :=
  match o with
  | OAdd _ _ _ v => nz_item v
  | OReplace _ _ _ _ v => nz_item v
  | _ => True
  end.

Lemma nz_items_snoc l v : nz_items l -> nz_item v -> nz_items (items_snoc l v).
Proof. intros Hl Hv. unfold items_snoc. induction l as [|i t IH]; cbn [items_app nz_items]; [auto|]. destruct Hl. auto. Qed.

Lemma nz_items_remove k l : nz_items l -> nz_items (items_remove k l).
Proof.
  revert k; induction l as [|i t IH]; intros k Hl; cbn [items_remove]; [exact I|].
  destruct Hl as [Hi Ht]. destruct (k =? 0); [exact Ht|]. cbn [nz_items]. auto.
Qed.

Lemma nz_items_replace k v l : nz_items l -> nz_item v -> nz_items (items_replace k v l) /\ items_len (items_replace k v l) = items_len l.
Proof.
  revert k; induction l as [|i t IH]; intros k Hl Hv; cbn [items_replace]; [split; [exact I|reflexivity]|].
  destruct Hl as [Hi Ht]. destruct (k =? 0); cbn [nz_items items_len]; [auto|].
  destruct (IH (N.pred k) Ht Hv) as [H1 H2]. rewrite H2. auto.
Qed.

Lemma nz_push p r v :
  match r with Some r0 => nz_repr r0 | None => True end -> nz_item v ->
  nz_repr (push p r v) /\ 1 <= repr_count (push p r v).
Proof.
  intros Hr Hv. destruct r as [[a|l]|]; cbn [push nz_repr repr_count] in *.
  - destruct p; cbn [nz_items items_len]; split; auto; lia.
  - destruct p.
    + cbn [nz_items items_len]. split; [auto|lia].
    + split; [apply nz_items_snoc; assumption|].
      unfold items_snoc. clear. induction l as [|i t IH]; cbn [items_app items_len]; lia.
  - split; [exact Hv|lia].
Qed.

Theorem api_reachable_nz (ops : list mop) : Forall op_nz ops -> nz_msg (run ops empty_msg).
Proof.
  intro H. set (Q := fun (_ : bytes) (_ : N) r => 1 <= repr_count r /\ nz_repr r).
  assert (Hs : forall m o, minv (fun _ => True) nz_fields m -> op_nz o ->
                           minv (fun _ => True) nz_fields (fst (step m o))).
  { intros m o Hm Ho. apply (step_inv _ nz_fields Q (fun _ => True)); trivial.
    - exact I.
    - intros. cbn [nz_fields]. unfold Q. tauto.
    - intros p n tc r v [_ Hr] [_ Hv]. destruct (nz_push p (Some r) v Hr Hv). split; assumption.
    - intros n tc l k v [Hc Hl] [_ Hv]. destruct (nz_items_replace k v l Hl Hv) as [H1 H2].
      split; [cbn [repr_count] in *; rewrite H2; exact Hc|exact H1].
    - intros n tc l k [_ Hl] H0. split; [cbn [repr_count]; lia|apply nz_items_remove; exact Hl].
    - destruct o; try exact I; (split; [reflexivity|exact Ho]). }
  destruct (run_preserves _ _ Hs ops empty_msg) as (_ & _ & Hf); [|exact H|].
  - split; [exact I|split; [constructor|exact I]].
  - destruct (run ops empty_msg). exact Hf.
Qed.
