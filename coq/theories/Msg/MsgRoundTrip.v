(* Msg/MsgRoundTrip.v -- parsing the bytes Flatten produced yields the original Message (modulo the
   non-flattenable fields and the inline/array state of one-item fields), at every nesting level. *)
From Coq Require Import List NArith Bool Strings.Byte Lia Arith.
From Muscle Require Import Gen.Consts Msg.MsgDefs Msg.MsgModel Msg.MsgBytesProofs Msg.MsgSizeProofs.
Import ListNotations.
Local Open Scope N_scope.

(* ------------------------------------------------------------------ field-table lemmas *)

Lemma fapp_nil_r (a : fields) : fapp a FNil = a.
Proof. induction a as [|n tc r a IH]; cbn [fapp]; [reflexivity|]. rewrite IH. reflexivity. Qed.

Lemma fapp_assoc (a b c : fields) : fapp (fapp a b) c = fapp a (fapp b c).
Proof. induction a as [|n tc r a IH]; cbn [fapp]; [reflexivity|]. rewrite IH. reflexivity. Qed.

Lemma fsnoc_fapp (a : fields) n tc r (b : fields) : fapp (fsnoc a n tc r) b = fapp a (FCons n tc r b).
Proof. unfold fsnoc. rewrite fapp_assoc. reflexivity. Qed.

Lemma flookup_fapp (n : bytes) (a b : fields) :
  flookup n (fapp a b) = match flookup n a with Some x => Some x | None => flookup n b end.
Proof.
  induction a as [|k tc r a IH]; cbn [fapp flookup]; [reflexivity|].
  destruct (bytes_eqb n k); [reflexivity|exact IH].
Qed.

Lemma flookup_fsnoc_other (n k : bytes) tc r (a : fields) :
  n <> k -> flookup n a = None -> flookup n (fsnoc a k tc r) = None.
Proof.
  intros Hne Ha. unfold fsnoc. rewrite flookup_fapp, Ha. cbn [flookup].
  apply bytes_eqb_neq in Hne. rewrite Hne. reflexivity.
Qed.

(* a function that keeps or drops whole fields, in order, keeps the names distinct *)
Lemma subtable_names (f : fields -> fields) :
  f FNil = FNil ->
  (forall n tc r t, f (FCons n tc r t) = f t \/ exists r', f (FCons n tc r t) = FCons n tc r' (f t)) ->
  forall fs, (forall k, In k (fnames (f fs)) -> In k (fnames fs)) /\ (NoDup (fnames fs) -> NoDup (fnames (f fs))).
Proof.
  intros Hnil Hcons. induction fs as [|n tc r t [IHs IHn]]; [rewrite Hnil; auto|].
  cbn [fnames]. destruct (Hcons n tc r t) as [-> | [r' ->]]; cbn [fnames In].
  - split; [auto|]. intro H. inversion H; auto.
  - split; [intros k [Hk|Hk]; auto|]. intro H. inversion H as [|? ? Hnin Hnd]; subst. constructor; auto.
Qed.

(* ------------------------------------------------------------------ lower bounds on what Flatten writes *)

Lemma flat_fields_lower (fs : fields) : 12 * count_flat fs <= len (flat_fields fs).
Proof.
  induction fs as [|n tc r t IH]; cbn [count_flat flat_fields]; [cbn; lia|].
  rewrite len_app. destruct (flattenable tc); [|cbn [len]; lia].
  rewrite !len_app, !len_le32. lia.
Qed.

Lemma flat_msg_lower (m : msg) : 12 <= len (flat_msg m).
Proof. destruct m as [w fs]. cbn [flat_msg]. rewrite !len_app, !len_le32. lia. Qed.

Lemma flat_msg_nonnil (m : msg) : flat_msg m <> [].
Proof. intro E. pose proof (flat_msg_lower m) as H. rewrite E in H. cbn in H. lia. Qed.

(* ------------------------------------------------------------------ leaf items (no nesting involved) *)

Lemma two32_gt_1 : 1 < two32.
Proof. reflexivity. Qed.

Lemma length_le32 (n : N) : length (le32 n) = 4%nat.
Proof. reflexivity. Qed.

Lemma dec_single_leaf (inner : bytes -> res (msg * bytes)) (ft : ftype) (i : item) :
  ft_flattenable ft = true -> ft <> TMessage -> wf_item ft i -> size_single ft i < two32 ->
  dec_single inner ft (flat_single ft i) = Ok (i, []).
Proof.
  intros Hf Hm Hwf Hs. destruct (ft_cases ft Hf) as [Hx | [-> | [-> | ->]]]; try congruence.
  - destruct (wf_fix_item ft i Hx Hwf) as (bs & -> & Hl & _ & ->).
    destruct ft; try discriminate Hx; unfold dec_single.
    1: destruct Hwf as [-> | ->]; reflexivity.
    all: rewrite <- Hl, N.leb_refl, takeN_all, dropN_all; reflexivity.
  - destruct i; cbn [wf_item] in Hwf; try contradiction.
    cbn [size_single] in Hs. rewrite sizeof_u32 in Hs.
    cbn [flat_single]. unfold dec_single. rewrite rd32_le32 by apply two32_gt_1. cbn [bind fst snd].
    rewrite N.eqb_refl, rd_lp_string_app by (assumption || lia). reflexivity.
  - destruct i; cbn [wf_item] in Hwf; try contradiction.
    change (size_single TRaw (IRaw bs)) with (c_SIZEOF_uint32 + c_SIZEOF_uint32 + len bs) in Hs. rewrite sizeof_u32 in Hs.
    cbn [flat_single]. unfold dec_single. rewrite rd32_le32 by apply two32_gt_1. cbn [bind fst snd].
    rewrite N.eqb_refl, rd32_le32 by lia. cbn [bind fst snd]. rewrite N.eqb_refl. reflexivity.
Qed.

(* ------------------------------------------------------------------ arrays of leaf items *)

(* the item count in nat: split_fix and walk_items recurse on it *)
Fixpoint items_cnt (l : items) : nat := match l with INil => O | ICons _ t => S (items_cnt t) end.

Lemma items_len_cnt (l : items) : items_len l = N.of_nat (items_cnt l).
Proof. induction l as [|i t IH]; cbn [items_len items_cnt]; [reflexivity|]. rewrite IH. lia. Qed.

Lemma split_fix_flat (ft : ftype) (l : items) :
  ft_fixed ft = true -> wf_items ft l ->
  split_fix (items_cnt l) (cpp_size ft) (flat_items ft l) = l.
Proof.
  intros Hx. induction l as [|i t IH]; intro Hw; cbn [items_cnt split_fix flat_items]; [reflexivity|].
  destruct Hw as [Hi Ht]. destruct (wf_fix_item ft i Hx Hi) as (bs & -> & Hl & -> & _).
  rewrite <- Hl, takeN_app_exact, dropN_app_exact, Hl, (IH Ht). reflexivity.
Qed.

Lemma norm_bools_wf (l : items) : wf_items TBool l -> norm_bools l = l.
Proof.
  induction l as [|i t IH]; intro Hw; cbn [norm_bools]; [reflexivity|].
  destruct Hw as [Hi Ht]. destruct i; cbn [wf_item] in Hi; try contradiction.
  rewrite (IH Ht). destruct Hi as [-> | ->]; reflexivity.
Qed.

Lemma leaf_item (ft : ftype) (i : item) :
  ft <> TMessage -> ft_flattenable ft = true -> wf_item ft i -> strip_item i = i /\ norm_item i = i.
Proof.
  intros Hm Hf Hw. destruct i; auto. destruct ft; cbn in Hw; try contradiction; try discriminate Hf; congruence.
Qed.

Lemma norm_items_leaf (ft : ftype) (l : items) : ft <> TMessage -> ft_flattenable ft = true -> wf_items ft l -> norm_items l = l.
Proof.
  intros Hm Hf. induction l as [|i t IH]; intros Hw; cbn [norm_items]; [reflexivity|].
  destruct Hw as [Hi Ht]. rewrite (IH Ht), (proj2 (leaf_item ft i Hm Hf Hi)). reflexivity.
Qed.

(* String and raw arrays share one format: count word, then per item a length word and a payload (the characters
   with their NUL / the bytes) *)
Definition lp_payload (i : item) : bytes := match i with IStr s => s ++ [x00] | IRaw b => b | _ => [] end.
Definition lp_mk (ft : ftype) : bytes -> option item := match ft with TString => mk_str | _ => mk_raw end.

Lemma lp_item (ft : ftype) (i : item) :
  ft = TString \/ ft = TRaw -> wf_item ft i ->
  flat_elem ft i = le32 (len (lp_payload i)) ++ lp_payload i /\ lp_mk ft (lp_payload i) = Some i.
Proof.
  intros [-> | ->] Hw; destruct i; cbn [wf_item] in Hw; try contradiction; cbn [flat_elem lp_payload lp_mk].
  - rewrite str_flat_size_len. unfold mk_str. rewrite (upto_nul_app bs []) by exact Hw. split; reflexivity.
  - split; reflexivity.
Qed.

(* the fuel only has to cover the bytes: every item consumes at least its length word *)
Lemma dec_lp_items_flat (ft : ftype) (l : items) (fuel : nat) :
  ft = TString \/ ft = TRaw -> wf_items ft l -> len (flat_items ft l) < two32 ->
  (length (flat_items ft l) <= fuel)%nat ->
  dec_lp_items (lp_mk ft) fuel (items_len l) (flat_items ft l) = Ok (l, []).
Proof.
  intro Hft. revert fuel; induction l as [|i t IH]; intros fuel Hw Hs Hfu.
  - destruct fuel; reflexivity.
  - destruct Hw as [Hi Ht]. destruct (lp_item ft i Hft Hi) as [Ef Em].
    cbn [items_len flat_items] in *. rewrite Ef, <- app_assoc in *.
    rewrite !len_app, len_le32 in Hs. rewrite !app_length, length_le32 in Hfu.
    destruct fuel as [|fuel]; [lia|]. cbn [dec_lp_items].
    rewrite (proj2 (N.eqb_neq _ _) (N.neq_succ_0 _)), rd32_le32 by lia. cbn [bind fst snd].
    rewrite leb_len_app, takeN_app_exact, dropN_app_exact, Em, N.pred_succ, IH by (assumption || lia). reflexivity.
Qed.

(* each raw item costs at least its length word *)
Lemma raw_items_lower (l : items) : wf_items TRaw l -> 4 * items_len l <= size_items TRaw l.
Proof.
  induction l as [|i t IH]; intro Hw; cbn [items_len size_items]; [lia|].
  destruct Hw as [Hi Ht]. specialize (IH Ht). destruct i; cbn in Hi; try contradiction.
  cbn [size_elem]. rewrite sizeof_u32. lia.
Qed.

(* ------------------------------------------------------------------ GetNumItemsInFlattenedBuffer *)

Lemma num_items_fixed (ft : ftype) (w : bytes) :
  ft_fixed ft = true -> num_items_in_buffer ft w = len w / cpp_size ft.
Proof.
  intro H. unfold num_items_in_buffer. destruct (size_tables_ok ft H) as (E1 & _ & Hp). rewrite E1.
  destruct (0 <? cpp_size ft) eqn:E; [reflexivity|]. apply N.ltb_ge in E. lia.
Qed.

Lemma num_items_count (ft : ftype) (n : N) (w : bytes) :
  ft = TString \/ ft = TRaw -> n < two32 -> num_items_in_buffer ft (le32 n ++ w) = n.
Proof.
  intros [-> | ->] H; unfold num_items_in_buffer;
    (replace (0 <? wire_size _) with false by reflexivity); rewrite rd32_le32 by exact H; reflexivity.
Qed.

Lemma num_items_msg (sz : N) (body more : bytes) :
  sz = len body -> sz < two32 ->
  num_items_in_buffer TMessage (le32 sz ++ body ++ more) = if len more =? 0 then 1 else 2.
Proof.
  intros E H. unfold num_items_in_buffer. replace (0 <? wire_size TMessage) with false by reflexivity.
  rewrite rd32_le32 by exact H. rewrite len_app, <- E.
  destruct (sz + len more <? sz) eqn:E1; [apply N.ltb_lt in E1; lia|].
  destruct (len more =? 0) eqn:E2.
  - apply N.eqb_eq in E2. rewrite E2, N.add_0_r, N.eqb_refl. reflexivity.
  - apply N.eqb_neq in E2. destruct (sz =? sz + len more) eqn:E3; [apply N.eqb_eq in E3; lia|reflexivity].
Qed.

(* ------------------------------------------------------------------ one item: the inline and the array writer agree *)

Lemma flat_repr_singleton (ft : ftype) (i : item) :
  ft_flattenable ft = true -> wf_item ft i -> flat_repr ft (RArray (ICons i INil)) = flat_single ft i.
Proof.
  intros Hf Hw. destruct ft; try discriminate Hf; destruct i; cbn [wf_item] in Hw; try contradiction;
    cbn [flat_repr flat_items flat_elem flat_single items_len]; rewrite ?app_nil_r; try reflexivity.
  destruct Hw as [-> | ->]; reflexivity.
Qed.

Lemma size_repr_singleton (ft : ftype) (i : item) :
  ft_flattenable ft = true -> wf_item ft i -> size_repr ft (RArray (ICons i INil)) = size_single ft i.
Proof.
  intros Hf Hw. rewrite <- (flat_repr_len ft (RArray _)), flat_repr_singleton by (cbn; auto).
  apply (flat_repr_len ft (RInline i)); assumption.
Qed.

(* ------------------------------------------------------------------ fields of leaf type *)

Lemma flat_array_fixed (ft : ftype) (l : items) : ft_fixed ft = true -> flat_repr ft (RArray l) = flat_items ft l.
Proof. destruct ft; intro H; try discriminate H; reflexivity. Qed.

Lemma num_items_array (ft : ftype) (l : items) :
  ft_flattenable ft = true -> ft <> TMessage -> wf_items ft l -> size_repr ft (RArray l) < two32 ->
  num_items_in_buffer ft (flat_repr ft (RArray l)) = items_len l.
Proof.
  intros Hf Hm Hw Hs. pose proof (flat_items_len ft l Hf Hw) as Hl. unfold items_flat_len in Hl.
  destruct (ft_cases ft Hf) as [Hx | [-> | [-> | ->]]]; try congruence.
  - rewrite Hx in Hl. destruct (size_tables_ok ft Hx) as (_ & _ & Hp).
    rewrite flat_array_fixed, num_items_fixed, Hl, N.div_mul by (assumption || lia). reflexivity.
  - cbn [size_repr] in Hs. rewrite sizeof_u32 in Hs. apply num_items_count; [auto|lia].
  - cbn [size_repr] in Hs. rewrite sizeof_u32 in Hs. pose proof (raw_items_lower l Hw).
    apply num_items_count; [auto|lia].
Qed.

Lemma dec_array_leaf (inner : bytes -> res (msg * bytes)) (ft : ftype) (l : items) :
  ft_flattenable ft = true -> ft <> TMessage -> wf_items ft l -> size_repr ft (RArray l) < two32 ->
  dec_array inner ft (flat_repr ft (RArray l)) = Ok (l, []).
Proof.
  intros Hf Hm Hw Hs. pose proof (flat_items_len ft l Hf Hw) as Hl. unfold items_flat_len in Hl.
  destruct (ft_cases ft Hf) as [Hx | [-> | [-> | ->]]]; try congruence.
  - rewrite Hx in Hl. destruct (size_tables_ok ft Hx) as (_ & Eu & Hp).
    rewrite flat_array_fixed by exact Hx. unfold dec_array.
    (* the nine fixed-size types run one script; only bool has norm_bools to undo *)
    destruct ft; try discriminate Hx;
      rewrite Eu, (proj2 (N.eqb_neq _ 0)), Hl, N.mod_mul by lia; cbn [N.eqb];
      rewrite N.div_mul, items_len_cnt, Nat2N.id, split_fix_flat, ?norm_bools_wf by (assumption || lia || reflexivity);
      reflexivity.
  - cbn [size_repr] in Hs. rewrite sizeof_u32 in Hs. cbn [flat_repr ft_fixed] in *. unfold dec_array.
    rewrite rd32_le32 by lia. cbn [bind fst snd].
    rewrite sizeof_u32, (proj2 (N.ltb_ge _ _)) by (apply N.div_le_lower_bound; lia).
    apply (dec_lp_items_flat TString); [auto|exact Hw|lia|rewrite app_length; lia].
  - cbn [size_repr] in Hs. rewrite sizeof_u32 in Hs. cbn [flat_repr ft_fixed] in *. unfold dec_array.
    rewrite rd32_le32 by (pose proof (raw_items_lower l Hw); lia). cbn [bind fst snd].
    apply (dec_lp_items_flat TRaw); [auto|exact Hw|lia|rewrite app_length; lia].
Qed.

Lemma dec_field_leaf (inner : bytes -> res (msg * bytes)) (ft : ftype) (r : repr) :
  ft_flattenable ft = true -> ft <> TMessage -> wf_repr ft r -> size_repr ft r < two32 ->
  dec_field inner ft (flat_repr ft r) = Ok (norm_repr r, []).
Proof.
  intros Hf Hm.
  assert (A : forall l, wf_items ft l -> size_repr ft (RArray l) < two32 ->
            dec_field inner ft (flat_repr ft (RArray l)) = Ok (norm_repr (RArray l), [])).
  { intros l Hw Hs. unfold dec_field. rewrite Hf, num_items_array by assumption. cbn [negb].
    pose proof (norm_items_leaf ft l Hm Hf Hw) as Hn.
    destruct l as [|i [|j t]].
    - rewrite dec_array_leaf by assumption. reflexivity.
    - destruct Hw as [Hi _]. rewrite size_repr_singleton in Hs by assumption.
      rewrite flat_repr_singleton, dec_single_leaf by assumption.
      cbn [norm_items] in Hn. injection Hn as Hn. cbn [norm_repr]. rewrite Hn. reflexivity.
    - rewrite (proj2 (N.eqb_neq _ 1)), dec_array_leaf by (assumption || cbn [items_len]; lia).
      cbn [norm_repr]. fold (norm_items (ICons i (ICons j t))). rewrite Hn. reflexivity. }
  intros Hw Hs. destruct r as [i | l]; [|exact (A l Hw Hs)].
  (* an inline item is written exactly as an array of one *)
  cbn [wf_repr] in Hw. cbn [size_repr] in Hs. cbn [flat_repr].
  rewrite <- (size_repr_singleton ft i Hf Hw) in Hs. rewrite <- (flat_repr_singleton ft i Hf Hw).
  apply (A (ICons i INil)); [cbn; auto|exact Hs].
Qed.

(* ------------------------------------------------------------------ the round trip, level by level *)

Lemma strip_repr_leaf (ft : ftype) (r : repr) : ft <> TMessage -> ft_flattenable ft = true -> wf_repr ft r -> strip_repr r = r.
Proof.
  intros Hm Hf Hw. destruct r as [i|l]; cbn [strip_repr wf_repr] in *; f_equal; [eapply leaf_item; eassumption|].
  induction l as [|i t IH]; cbn [strip_items]; [reflexivity|].
  destruct Hw as [Hi Ht]. rewrite (IH Ht), (proj1 (leaf_item ft i Hm Hf Hi)). reflexivity.
Qed.

Fixpoint all_items (P : item -> Prop) (l : items) : Prop :=
  match l with INil => True | ICons i t => P i /\ all_items P t end.

(* One induction over all five levels.  The nesting fuel [f] and the loop fuel are bounded by the bytes still to
   parse, which is how unflatten and dec_array supply them: every level and every item consumes some.  A field
   of leaf type is dec_field_leaf; a field that is never written is skipped by writer, strip and reader alike.
   RT_items carries the statement for each item because a one-item array is read by the inline reader. *)
Definition RT_msg (m : msg) : Prop :=
  wf_msg m -> size_msg m < two32 ->
  forall f, (length (flat_msg m) < f)%nat -> dec_msg f (flat_msg m) = Ok (rt m, []).

Definition RT_item (i : item) : Prop := match i with IMsg m => RT_msg m | _ => True end.

Definition RT_items (l : items) : Prop :=
  all_items RT_item l /\
  forall f fuel, wf_items TMessage l -> size_items TMessage l < two32 ->
    (length (flat_items TMessage l) <= f)%nat -> (length (flat_items TMessage l) <= fuel)%nat ->
    dec_msg_items (dec_msg f) fuel (flat_items TMessage l) = Ok (norm_items (strip_items l), []).

Definition RT_repr (r : repr) : Prop :=
  forall ft f, ft_flattenable ft = true -> wf_repr ft r -> size_repr ft r < two32 ->
    (length (flat_repr ft r) <= f)%nat ->
    dec_field (dec_msg f) ft (flat_repr ft r) = Ok (norm_repr (strip_repr r), []).

Definition RT_fields (fs : fields) : Prop :=
  forall f acc rest, wf_fields fs -> NoDup (fnames fs) ->
    (forall n, In n (fnames fs) -> flookup n acc = None) ->
    size_fields fs < two32 -> (length (flat_fields fs) <= f)%nat ->
    dec_entries (dec_msg f) (N.to_nat (count_flat fs)) acc (flat_fields fs ++ rest)
      = Ok (fapp acc (norm_fields (strip_fields fs)), rest).

Lemma dec_single_msg (f : nat) (m m' : msg) :
  size_msg m < two32 -> len (flat_msg m) = size_msg m ->
  dec_msg f (flat_msg m) = Ok (m', []) ->
  dec_single (dec_msg f) TMessage (flat_single TMessage (IMsg m)) = Ok (IMsg m', []).
Proof.
  intros Hs Hl Hd. cbn [flat_single]. unfold dec_single. rewrite rd32_le32 by exact Hs. cbn [bind fst snd].
  rewrite Hl, N.eqb_refl, Hd. reflexivity.
Qed.

Lemma dec_field_one_msg (f : nat) (m m' : msg) :
  wf_msg m -> size_single TMessage (IMsg m) < two32 -> dec_msg f (flat_msg m) = Ok (m', []) ->
  dec_field (dec_msg f) TMessage (flat_single TMessage (IMsg m)) = Ok (RInline (IMsg m'), []).
Proof.
  intros Hw Hs Hd. cbn [size_single] in Hs. rewrite sizeof_u32 in Hs. pose proof (flat_msg_len m Hw) as Hl.
  assert (En : num_items_in_buffer TMessage (flat_single TMessage (IMsg m)) = 1).
  { cbn [flat_single]. rewrite <- (app_nil_r (flat_msg m)), num_items_msg by (auto; lia). reflexivity. }
  unfold dec_field. cbn [ft_flattenable negb]. rewrite En, N.eqb_refl, (dec_single_msg f m m') by (assumption || lia).
  reflexivity.
Qed.

Lemma roundtrip_all :
  (forall i, RT_item i) /\ (forall l, RT_items l) /\ (forall r, RT_repr r) /\
  (forall fs, RT_fields fs) /\ (forall m, RT_msg m).
Proof.
  apply msg_mutind; try exact (fun _ => I).
  - (* IMsg *) intros m IH. exact IH.
  - (* INil *)
    split; [exact I|]. intros f fuel _ _ _ _. destruct fuel; reflexivity.
  - (* ICons *)
    intros i IHi t [IHt1 IHt2]. split; [split; assumption|].
    intros f fuel [Hwi Hwt] Hs Hd Hfu.
    destruct i as [bs|bs|bs|m|id]; cbn [wf_item] in Hwi; try contradiction.
    cbn [RT_item] in IHi.
    cbn [size_items size_elem] in Hs. rewrite sizeof_u32 in Hs.
    pose proof (flat_msg_len m Hwi) as Hl.
    cbn [flat_items flat_elem] in *. rewrite <- app_assoc in *. rewrite !app_length, length_le32 in Hfu, Hd.
    destruct fuel as [|fuel]; [lia|].
    destruct (le32_cons4 (size_msg m)) as (a & b & c & d & E).
    cbn [dec_msg_items]. rewrite E at 1. cbn [app].
    rewrite rd32_le32 by lia. cbn [bind fst snd].
    rewrite <- Hl, leb_len_app, takeN_app_exact, dropN_app_exact.
    rewrite (IHi Hwi) by lia. cbn [bind fst snd app].
    rewrite (IHt2 f fuel Hwt) by lia. reflexivity.
  - (* RInline *)
    intros i IHi ft f Hf Hw Hs Hd.
    destruct (ftype_eq_dec ft TMessage) as [-> | Hm];
      [|rewrite (strip_repr_leaf ft) by assumption; apply dec_field_leaf; assumption].
    cbn [wf_repr] in Hw. destruct i as [bs|bs|bs|m|id]; cbn [wf_item] in Hw; try contradiction.
    cbn [flat_repr flat_single] in Hd. rewrite app_length, length_le32 in Hd.
    apply (dec_field_one_msg f m (rt m)); [exact Hw|exact Hs|].
    cbn [size_repr size_single] in Hs. apply IHi; auto; lia.
  - (* RArray *)
    intros l [IHl1 IHl2] ft f Hf Hw Hs Hd.
    destruct (ftype_eq_dec ft TMessage) as [-> | Hm];
      [|rewrite (strip_repr_leaf ft) by assumption; apply dec_field_leaf; assumption].
    cbn [wf_repr] in Hw.
    destruct l as [|i [|j t]].
    + reflexivity.
    + (* one sub-Message: parsed back inline *)
      destruct Hw as [Hwi _]. destruct IHl1 as [IHi _].
      rewrite size_repr_singleton in Hs by auto. rewrite flat_repr_singleton in * by auto.
      destruct i as [bs|bs|bs|m|id]; cbn [wf_item] in Hwi; try contradiction.
      cbn [flat_single] in Hd. rewrite app_length, length_le32 in Hd.
      apply (dec_field_one_msg f m (rt m)); [exact Hwi|exact Hs|].
      cbn [size_single] in Hs. apply IHi; auto; lia.
    + (* two or more sub-Messages *)
      change (norm_repr (strip_repr (RArray (ICons i (ICons j t)))))
        with (RArray (norm_items (strip_items (ICons i (ICons j t))))).
      set (l := ICons i (ICons j t)) in *. cbn [size_repr] in Hs.
      unfold dec_field. cbn [flat_repr ft_flattenable negb].
      assert (En : num_items_in_buffer TMessage (flat_items TMessage l) = 2).
      { unfold l. destruct Hw as (Hwi & Hwj & _).
        destruct i as [bs|bs|bs|m|id]; cbn [wf_item] in Hwi; try contradiction.
        destruct j as [bs|bs|bs|m2|id]; cbn [wf_item] in Hwj; try contradiction.
        unfold l in Hs. cbn [size_items size_elem] in Hs. rewrite sizeof_u32 in Hs.
        cbn [flat_items flat_elem]. rewrite <- !app_assoc.
        pose proof (flat_msg_len m Hwi) as Hl.
        rewrite num_items_msg by (try lia; auto).
        rewrite !len_app, len_le32. destruct (4 + _ =? 0) eqn:E; [apply N.eqb_eq in E; lia|reflexivity]. }
      rewrite En. cbn [N.eqb Pos.eqb]. unfold dec_array.
      rewrite IHl2; [reflexivity|exact Hw|exact Hs|exact Hd|lia].
  - (* FNil *)
    intros f acc rest _ _ _ _ _. cbn. rewrite fapp_nil_r. reflexivity.
  - (* FCons *)
    intros n tc r IHr t IHt f acc rest (Hn & Htc & Hr & Ht) Hnd Hacc Hs Hd.
    cbn [fnames] in *. inversion Hnd as [|? ? Hnin Hnd']; subst.
    cbn [count_flat flat_fields size_fields strip_fields] in *.
    destruct (flattenable tc) eqn:Hfl.
    2:{ (* a field that is never written *) cbn [N.add app] in *. apply IHt; auto. intros k Hk. apply Hacc. right. exact Hk. }
    cbn [norm_fields]. rewrite sizeof_u32 in Hs. rewrite !app_length in Hd.
    replace (N.to_nat (1 + count_flat t)) with (S (N.to_nat (count_flat t))) by lia.
    cbn [dec_entries].
    rewrite <- !app_assoc. cbn [app].
    rewrite rd_lp_string_app by (try exact Hn; lia). cbn [bind fst snd].
    rewrite rd32_le32 by exact Htc. cbn [bind fst snd].
    rewrite rd32_le32 by lia. cbn [bind fst snd].
    rewrite (Hacc n (or_introl eq_refl)).
    rewrite <- (flat_repr_len _ r Hfl Hr), takeN_app_exact, dropN_app_exact.
    rewrite (IHr (ftype_of_tc tc) f Hfl Hr) by lia. cbn [bind fst snd app].
    rewrite (IHt f (fsnoc acc n tc (norm_repr (strip_repr r))) rest Ht Hnd'); [|  |lia|lia].
    + rewrite fsnoc_fapp. reflexivity.
    + intros k Hk. apply flookup_fsnoc_other; [|apply Hacc; right; exact Hk].
      intro E. subst k. contradiction.
  - (* Msg *)
    intros w fs IH (Hw & Hnd & Hfs) Hs f Hd.
    cbn [flat_msg] in Hd. rewrite !app_length, !length_le32 in Hd. destruct f as [|f]; [lia|].
    cbn [size_msg] in Hs. rewrite sizeof_u32 in Hs.
    unfold rt. cbn [dec_msg flat_msg strip_msg norm_msg]. unfold dec_msg_level.
    destruct proto_version_ok as [Hv1 Hv2].
    rewrite rd32_le32 by exact Hv2. cbn [bind fst snd].
    rewrite Hv1, N.leb_refl. cbn [andb].
    rewrite rd32_le32 by exact Hw. cbn [bind fst snd].
    pose proof (flat_fields_lower fs) as Hlow.
    pose proof (flat_fields_len fs Hfs) as Hl.
    rewrite rd32_le32 by lia. cbn [bind fst snd].
    rewrite sizeof_u32, (proj2 (N.ltb_ge _ _)) by (apply N.div_le_lower_bound; lia).
    rewrite <- (app_nil_r (flat_fields fs)).
    rewrite (IH f FNil [] Hfs Hnd); [reflexivity|reflexivity|lia|lia].
Qed.

(* ------------------------------------------------------------------ the round-trip theorem *)

Theorem unflatten_flatten (m : msg) : wf m -> unflatten (flatten m) = Ok (rt m).
Proof.
  intros [Hw Hs]. unfold unflatten, flatten.
  rewrite (proj2 (proj2 (proj2 (proj2 roundtrip_all))) m Hw Hs) by lia. reflexivity.
Qed.

(* ------------------------------------------------------------------ strip: what is not written does not matter *)

Lemma strip_flat_all :
  (forall i ft, size_single ft (strip_item i) = size_single ft i /\ size_elem ft (strip_item i) = size_elem ft i /\
                flat_single ft (strip_item i) = flat_single ft i /\ flat_elem ft (strip_item i) = flat_elem ft i) /\
  (forall l ft, size_items ft (strip_items l) = size_items ft l /\ items_len (strip_items l) = items_len l /\
                flat_items ft (strip_items l) = flat_items ft l) /\
  (forall r ft, size_repr ft (strip_repr r) = size_repr ft r /\ flat_repr ft (strip_repr r) = flat_repr ft r) /\
  (forall fs, size_fields (strip_fields fs) = size_fields fs /\ count_flat (strip_fields fs) = count_flat fs /\
              flat_fields (strip_fields fs) = flat_fields fs) /\
  (forall m, size_msg (strip_msg m) = size_msg m /\ flat_msg (strip_msg m) = flat_msg m).
Proof.
  apply msg_mutind; try (intros; repeat split; reflexivity).
  - (* IMsg *) intros m [Es Ef] ft. cbn [strip_item].
    destruct ft; cbn [size_single size_elem flat_single flat_elem]; rewrite ?Es, ?Ef; auto.
  - (* ICons *) intros i IHi t IHt ft. cbn [strip_items size_items items_len flat_items].
    destruct (IHi ft) as (_ & -> & _ & ->). destruct (IHt ft) as (-> & -> & ->). auto.
  - (* RInline *) intros i IH ft. destruct (IH ft) as (E1 & _ & E2 & _). auto.
  - (* RArray *) intros l IH ft. destruct (IH ft) as (E1 & E2 & E3). cbn [strip_repr].
    destruct ft; cbn [size_repr flat_repr]; rewrite ?E1, ?E2, ?E3; auto.
  - (* FCons *) intros n tc r IHr t (E1 & E2 & E3). cbn [strip_fields].
    destruct (flattenable tc) eqn:Fl; cbn [size_fields count_flat flat_fields]; rewrite Fl, E1, E2, E3; [|auto].
    destruct (IHr (ftype_of_tc tc)) as [-> ->]. auto.
  - (* Msg *) intros w fs (E1 & E2 & E3). cbn [strip_msg size_msg flat_msg]. rewrite E1, E2, E3. auto.
Qed.

Lemma items_len_strip (l : items) : items_len (strip_items l) = items_len l.
Proof. induction l as [|i t IH]; cbn [strip_items items_len]; congruence. Qed.

Lemma strip_names_nodup (fs : fields) : NoDup (fnames fs) -> NoDup (fnames (strip_fields fs)).
Proof.
  apply (subtable_names strip_fields); [reflexivity|].
  intros. cbn [strip_fields]. destruct (flattenable tc); eauto.
Qed.

Lemma strip_wf_all :
  (forall i ft, ft_flattenable ft = true -> wf_item ft i -> wf_item ft (strip_item i)) /\
  (forall l ft, ft_flattenable ft = true -> wf_items ft l -> wf_items ft (strip_items l)) /\
  (forall r ft, ft_flattenable ft = true -> wf_repr ft r -> wf_repr ft (strip_repr r)) /\
  (forall fs, wf_fields fs -> wf_fields (strip_fields fs)) /\
  (forall m, wf_msg m -> wf_msg (strip_msg m)).
Proof.
  apply msg_mutind; try (intros; assumption); try exact (fun _ => I).
  - (* IMsg *) intros m IH ft Hf H. destruct ft; try discriminate Hf; cbn [wf_item] in *; try contradiction.
    apply IH. exact H.
  - (* ICons *) intros i IHi t IHt ft Hf [Hi Ht]. cbn [strip_items wf_items]. auto.
  - (* RInline *) intros i IH ft Hf H. apply IH; assumption.
  - (* RArray *) intros l IH ft Hf H. apply IH; assumption.
  - (* FCons *) intros n tc r IHr t IHt (Hn & Htc & Hr & Ht). cbn [strip_fields].
    destruct (flattenable tc) eqn:Fl; [|auto]. cbn [wf_fields]. auto 6.
  - (* Msg *) intros w fs IH (Hw & Hnd & Hfs). cbn [strip_msg wf_msg]. auto using strip_names_nodup.
Qed.

Lemma strip_wf (m : msg) : wf_msg m -> wf_msg (strip_msg m).
Proof. apply strip_wf_all. Qed.
