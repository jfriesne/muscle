(* Msg/MsgEqProofs.v -- Message equality (operator==) is unchanged by the round trip.

   The model of operator== is parameterised by the equality of leaf values [ieq]; the only thing assumed
   about it is symmetry (ieq a b = ieq b a), which every C++ item type's operator== has (IEEE comparison
   included: NaN makes it irreflexive, not asymmetric).  Symmetry is needed because the array-vs-inline case
   of MessageField::IsEqualTo calls rhs.IsEqualTo(this), i.e. compares with the operands swapped. *)
From Coq Require Import List NArith Bool Strings.Byte Lia Arith.
From Muscle Require Import Gen.Consts Msg.MsgDefs Msg.MsgModel Msg.MsgBytesProofs
  Msg.MsgRoundTrip Msg.MsgApiProofs.
Import ListNotations.
Local Open Scope N_scope.

(* field names unique at every nesting level *)
Fixpoint nd_msg (m : msg) : Prop :=
  match m with Msg _ fs => NoDup (fnames fs) /\ nd_fields fs end
with nd_fields (fs : fields) : Prop :=
  match fs with FNil => True | FCons _ _ r t => nd_repr r /\ nd_fields t end
with nd_repr (r : repr) : Prop :=
  match r with RInline i => nd_item i | RArray l => nd_items l end
with nd_item (i : item) : Prop :=
  match i with IMsg m => nd_msg m | _ => True end
with nd_items (l : items) : Prop :=
  match l with INil => True | ICons i t => nd_item i /\ nd_items t end.

(* strip first: below a pointer or tag field well-formedness says nothing *)
Lemma wf_nd_strip_all :
  (forall i ft, ft_flattenable ft = true -> wf_item ft i -> nd_item (strip_item i)) /\
  (forall l ft, ft_flattenable ft = true -> wf_items ft l -> nd_items (strip_items l)) /\
  (forall r ft, ft_flattenable ft = true -> wf_repr ft r -> nd_repr (strip_repr r)) /\
  (forall fs, wf_fields fs -> nd_fields (strip_fields fs)) /\
  (forall m, wf_msg m -> nd_msg (strip_msg m)).
Proof.
  apply msg_mutind; try (intros; exact I).
  - (* IMsg *) intros m IH ft Hf Hw. destruct ft; try discriminate Hf; cbn [wf_item] in Hw; try contradiction.
    apply IH. exact Hw.
  - (* ICons *) intros i IHi t IHt ft Hf [Hi Ht]. split; [apply (IHi ft)|apply (IHt ft)]; assumption.
  - (* RInline *) intros i IH ft Hf Hw. apply (IH ft); assumption.
  - (* RArray *) intros l IH ft Hf Hw. apply (IH ft); assumption.
  - (* FCons *) intros n tc r IHr t IHt (Hn & Htc & Hr & Ht). cbn [strip_fields].
    destruct (flattenable tc) eqn:Fl; [|auto]. split; [apply (IHr _ Fl Hr)|auto].
  - (* Msg *) intros w fs IH (Hw & Hnd & Hfs). split; [apply strip_names_nodup; exact Hnd|auto].
Qed.

Lemma nd_norm_all :
  (forall i, nd_item i -> nd_item (norm_item i)) /\
  (forall l, nd_items l -> nd_items (norm_items l)) /\
  (forall r, nd_repr r -> nd_repr (norm_repr r)) /\
  (forall fs, nd_fields fs -> nd_fields (norm_fields fs) /\ fnames (norm_fields fs) = fnames fs) /\
  (forall m, nd_msg m -> nd_msg (norm_msg m)).
Proof.
  apply msg_mutind; try (intros; exact I).
  - (* IMsg *) intros m IH H. cbn [norm_item nd_item] in *. apply IH. exact H.
  - (* ICons *) intros i IHi t IHt [Hi Ht]. cbn [norm_items nd_items]. auto.
  - (* RInline *) intros i IH H. cbn [norm_repr nd_repr] in *. auto.
  - (* RArray *) intros l IH H. cbn [nd_repr] in H. specialize (IH H).
    destruct l as [|i [|j t]]; cbn [norm_repr nd_repr]; try exact IH.
    cbn [norm_items nd_items] in IH. apply IH.
  - (* FNil *) intros _. split; [exact I|reflexivity].
  - (* FCons *) intros n tc r IHr t IHt [Hr Ht]. destruct (IHt Ht) as [H1 H2].
    cbn [norm_fields nd_fields fnames]. rewrite H2. auto.
  - (* Msg *) intros w fs IH [Hnd Hfs]. destruct (IH Hfs) as [H1 H2]. cbn [norm_msg nd_msg]. rewrite H2. auto.
Qed.

(* ------------------------------------------------------------------ field-table facts used below *)

Lemma flookup_norm (n : bytes) (fs : fields) :
  flookup n (norm_fields fs) = match flookup n fs with Some (tc, r) => Some (tc, norm_repr r) | None => None end.
Proof.
  induction fs as [|k tc r t IH]; cbn [norm_fields flookup]; [reflexivity|].
  destruct (bytes_eqb n k); [reflexivity|exact IH].
Qed.

Lemma fields_len_norm (fs : fields) : fields_len (norm_fields fs) = fields_len fs.
Proof. induction fs as [|k tc r t IH]; cbn [norm_fields fields_len]; [reflexivity|]. rewrite IH. reflexivity. Qed.

Lemma flookup_nd (n : bytes) (fs : fields) tc r : flookup n fs = Some (tc, r) -> nd_fields fs -> nd_repr r.
Proof. apply (F_flookup nd_fields (fun _ _ r => nd_repr r)). intros. apply iff_refl. Qed.

Lemma flookup_some_in (n : bytes) (fs : fields) tc r : flookup n fs = Some (tc, r) -> In n (fnames fs).
Proof. intro H. apply flookup_in_iff. congruence. Qed.

Lemma fields_len_length (fs : fields) : fields_len fs = N.of_nat (length (fnames fs)).
Proof. induction fs as [|k tc r t IH]; cbn [fields_len fnames length]; [reflexivity|]. rewrite IH. lia. Qed.

Definition repr_items (r : repr) : items := match r with RInline i => ICons i INil | RArray l => l end.

Lemma repr_items_norm (r : repr) : repr_items (norm_repr r) = norm_items (repr_items r).
Proof. destruct r as [i|[|i [|j t]]]; reflexivity. Qed.

Lemma repr_count_items (r : repr) : repr_count r = items_len (repr_items r).
Proof. destruct r; reflexivity. Qed.

Lemma nd_repr_items (r : repr) : nd_repr r -> nd_items (repr_items r).
Proof. destruct r; cbn [nd_repr repr_items nd_items]; auto. Qed.

Section EqProofs.
  Variable ieq : ftype -> bytes -> bytes -> bool.
  Hypothesis ieq_sym : forall ft a b, ieq ft a b = ieq ft b a.

  Section Level.
    Variable inner : msg -> msg -> bool.
    Hypothesis inner_sym : forall a b, nd_msg a -> nd_msg b -> inner a b = inner b a.

    Lemma item_eqb_sym ft i j : nd_item i -> nd_item j -> item_eqb ieq inner ft i j = item_eqb ieq inner ft j i.
    Proof.
      intros Hi Hj. destruct i, j; cbn [item_eqb]; try reflexivity;
        auto using ieq_sym, bytes_eqb_sym, N.eqb_sym.
    Qed.

    Lemma items_eqb_sym ft l l2 : nd_items l -> nd_items l2 -> items_eqb ieq inner ft l l2 = items_eqb ieq inner ft l2 l.
    Proof.
      revert l2; induction l as [|i t IH]; intros [|j t2]; cbn [items_eqb nd_items]; try reflexivity.
      intros [Hi Ht] [Hj Ht2]. rewrite (item_eqb_sym ft i j Hi Hj), (IH t2 Ht Ht2). reflexivity.
    Qed.

    Lemma items_eqb_len ft l l2 : items_eqb ieq inner ft l l2 = true -> items_len l = items_len l2.
    Proof.
      revert l2; induction l as [|i t IH]; intros [|j t2]; cbn [items_eqb items_len]; try discriminate; [reflexivity|].
      intro H. apply andb_true_iff in H. destruct H as [_ H]. rewrite (IH t2 H). reflexivity.
    Qed.

    (* representation independence of field equality: only the type code and the item lists matter *)
    Lemma field_eqb_canon tc r tc2 r2 :
      nd_repr r -> nd_repr r2 ->
      field_eqb ieq inner tc r tc2 r2 =
      (tc =? tc2) && items_eqb ieq inner (ftype_of_tc tc) (repr_items r) (repr_items r2).
    Proof.
      intros Hr Hr2. unfold field_eqb. destruct (tc =? tc2); [|reflexivity]. cbn [andb].
      destruct r as [i|l], r2 as [j|l2]; cbn [repr_count repr_items nd_repr] in *.
      - cbn [items_eqb N.eqb Pos.eqb andb orb]. rewrite andb_true_r. reflexivity.
      - destruct l2 as [|j [|k t]]; cbn [items_len items_hd items_eqb]; try reflexivity.
        + cbn [N.succ N.eqb Pos.eqb Pos.succ andb orb]. rewrite andb_true_r. reflexivity.
        + rewrite andb_false_r.
          destruct (1 =? _) eqn:E; [apply N.eqb_eq in E; lia|reflexivity].
      - destruct l as [|i [|k t]]; cbn [items_len items_hd items_eqb]; try reflexivity.
        + cbn [N.succ N.eqb Pos.eqb Pos.succ andb orb]. rewrite andb_true_r.
          destruct Hr as [Hi _]. apply item_eqb_sym; assumption.
        + rewrite andb_false_r.
          destruct (_ =? 1) eqn:E; [apply N.eqb_eq in E; lia|reflexivity].
      - destruct (items_len l =? items_len l2) eqn:E.
        + cbn [andb]. destruct (items_len l =? 0) eqn:E0; [|reflexivity].
          apply N.eqb_eq in E0. apply N.eqb_eq in E. rewrite E0 in E.
          destruct l; [|cbn [items_len] in E0; lia]. destruct l2; [reflexivity|cbn [items_len] in E; lia].
        + cbn [andb]. destruct (items_eqb ieq inner (ftype_of_tc tc) l l2) eqn:E2; [|reflexivity].
          apply items_eqb_len in E2. apply N.eqb_neq in E. contradiction.
    Qed.

    Lemma field_eqb_sym tc r tc2 r2 :
      nd_repr r -> nd_repr r2 -> field_eqb ieq inner tc r tc2 r2 = field_eqb ieq inner tc2 r2 tc r.
    Proof.
      intros Hr Hr2. rewrite !field_eqb_canon by assumption. rewrite (N.eqb_sym tc tc2).
      destruct (tc2 =? tc) eqn:E; [|reflexivity]. apply N.eqb_eq in E. subst tc2.
      rewrite items_eqb_sym by auto using nd_repr_items. reflexivity.
    Qed.

    (* FieldsAreSubsetOf, as a statement about lookups *)
    Lemma fields_sub_true (f1 f2 : fields) :
      NoDup (fnames f1) ->
      (fields_sub ieq inner f1 f2 = true <->
       forall n tc r, flookup n f1 = Some (tc, r) ->
         exists tc2 r2, flookup n f2 = Some (tc2, r2) /\ field_eqb ieq inner tc r tc2 r2 = true).
    Proof.
      induction f1 as [|k tc r t IH]; intro Hnd.
      - cbn [fields_sub flookup]. split; [discriminate|reflexivity].
      - cbn [fnames] in Hnd. inversion Hnd as [|? ? Hk Ht]; subst. specialize (IH Ht).
        cbn [fields_sub]. split.
        + intros H n tc' r' Hl. cbn [flookup] in Hl.
          destruct (flookup k f2) as [[tc2 r2]|] eqn:E2; [|discriminate].
          apply andb_true_iff in H. destruct H as [H1 H2].
          destruct (bytes_eqb n k) eqn:E.
          * apply bytes_eqb_eq in E. subst n. injection Hl as <- <-. eauto.
          * apply (proj1 IH H2). exact Hl.
        + intro H.
          destruct (H k tc r) as (tc2 & r2 & E2 & E3); [cbn [flookup]; rewrite bytes_eqb_refl; reflexivity|].
          rewrite E2, E3. cbn [andb]. apply (proj2 IH).
          intros n tc' r' Hl. apply H. cbn [flookup].
          destruct (bytes_eqb n k) eqn:E; [|exact Hl].
          apply bytes_eqb_eq in E. subst n. exfalso. apply Hk. exact (flookup_some_in _ _ _ _ Hl).
    Qed.

    Lemma fields_sub_swap (f1 f2 : fields) :
      NoDup (fnames f1) -> NoDup (fnames f2) -> nd_fields f1 -> nd_fields f2 ->
      fields_len f1 = fields_len f2 ->
      fields_sub ieq inner f1 f2 = true -> fields_sub ieq inner f2 f1 = true.
    Proof.
      intros N1 N2 D1 D2 Hlen H.
      apply (fields_sub_true f2 f1 N2). intros k tc2 r2 Hl2.
      pose proof (proj1 (fields_sub_true f1 f2 N1) H) as Hsub.
      (* names of f1 are among the names of f2; equal lengths and no duplicates give the converse *)
      assert (Hincl : incl (fnames f1) (fnames f2)).
      { intros n Hn. destruct (flookup n f1) as [[tc r]|] eqn:E; [|exfalso; exact (flookup_in n f1 Hn E)].
        destruct (Hsub n tc r E) as (tc' & r' & E' & _). exact (flookup_some_in _ _ _ _ E'). }
      assert (Hincl2 : incl (fnames f2) (fnames f1)).
      { apply NoDup_length_incl; [exact N1| |exact Hincl].
        rewrite !fields_len_length in Hlen. lia. }
      assert (Hk : In k (fnames f1)) by (apply Hincl2; exact (flookup_some_in _ _ _ _ Hl2)).
      destruct (flookup k f1) as [[tc r]|] eqn:E1; [|exfalso; exact (flookup_in k f1 Hk E1)].
      destruct (Hsub k tc r E1) as (tc' & r' & E' & Heq).
      rewrite Hl2 in E'. injection E' as <- <-.
      exists tc, r. split; [reflexivity|].
      rewrite field_eqb_sym; [exact Heq| |]; eauto using flookup_nd.
    Qed.

    Lemma msg_eqb_level_sym (m n : msg) :
      nd_msg m -> nd_msg n -> msg_eqb_level ieq inner m n = msg_eqb_level ieq inner n m.
    Proof.
      destruct m as [w1 f1], n as [w2 f2]. intros [N1 D1] [N2 D2]. cbn [msg_eqb_level].
      rewrite (N.eqb_sym w1 w2), (N.eqb_sym (fields_len f1) (fields_len f2)).
      destruct (w2 =? w1); [|reflexivity]. cbn [andb].
      destruct (fields_len f2 =? fields_len f1) eqn:El; [|reflexivity]. cbn [andb].
      apply N.eqb_eq in El.
      destruct (fields_sub ieq inner f1 f2) eqn:E1, (fields_sub ieq inner f2 f1) eqn:E2; try reflexivity.
      - rewrite (fields_sub_swap f1 f2) in E2; auto.
      - rewrite (fields_sub_swap f2 f1) in E1; auto.
    Qed.

    (* ---- invariance under norm, given it for the next level *)
    Hypothesis inner_norm : forall a b, nd_msg a -> nd_msg b -> inner (norm_msg a) (norm_msg b) = inner a b.

    Lemma item_eqb_norm ft i j : nd_item i -> nd_item j ->
      item_eqb ieq inner ft (norm_item i) (norm_item j) = item_eqb ieq inner ft i j.
    Proof. intros Hi Hj. destruct i, j; cbn [norm_item item_eqb]; try reflexivity. apply inner_norm; assumption. Qed.

    Lemma items_eqb_norm ft l l2 : nd_items l -> nd_items l2 ->
      items_eqb ieq inner ft (norm_items l) (norm_items l2) = items_eqb ieq inner ft l l2.
    Proof.
      revert l2; induction l as [|i t IH]; intros [|j t2]; cbn [norm_items items_eqb nd_items]; try reflexivity.
      intros [Hi Ht] [Hj Ht2]. rewrite item_eqb_norm, IH by assumption. reflexivity.
    Qed.

    Lemma field_eqb_norm tc r tc2 r2 : nd_repr r -> nd_repr r2 ->
      field_eqb ieq inner tc (norm_repr r) tc2 (norm_repr r2) = field_eqb ieq inner tc r tc2 r2.
    Proof.
      intros Hr Hr2.
      rewrite !field_eqb_canon by (try assumption; apply nd_norm_all; assumption).
      rewrite !repr_items_norm, items_eqb_norm by auto using nd_repr_items. reflexivity.
    Qed.

    Lemma fields_sub_norm f1 f2 : nd_fields f1 -> nd_fields f2 ->
      fields_sub ieq inner (norm_fields f1) (norm_fields f2) = fields_sub ieq inner f1 f2.
    Proof.
      intros D1 D2. induction f1 as [|k tc r t IH]; cbn [norm_fields fields_sub]; [reflexivity|].
      destruct D1 as [Hr Ht]. rewrite flookup_norm.
      destruct (flookup k f2) as [[tc2 r2]|] eqn:E; [|reflexivity].
      rewrite field_eqb_norm, (IH Ht); [reflexivity|exact Hr|]. exact (flookup_nd _ _ _ _ E D2).
    Qed.

    Lemma msg_eqb_level_norm (m n : msg) : nd_msg m -> nd_msg n ->
      msg_eqb_level ieq inner (norm_msg m) (norm_msg n) = msg_eqb_level ieq inner m n.
    Proof.
      destruct m as [w1 f1], n as [w2 f2]. intros [N1 D1] [N2 D2]. cbn [norm_msg msg_eqb_level].
      rewrite !fields_len_norm, fields_sub_norm by assumption. reflexivity.
    Qed.
  End Level.

  Theorem msg_eqb_sym (fuel : nat) (m n : msg) : nd_msg m -> nd_msg n -> msg_eqb ieq fuel m n = msg_eqb ieq fuel n m.
  Proof.
    revert m n; induction fuel as [|f IH]; intros m n Hm Hn; cbn [msg_eqb]; [reflexivity|].
    apply msg_eqb_level_sym; assumption.
  Qed.

  Theorem msg_eqb_norm (fuel : nat) (m n : msg) : nd_msg m -> nd_msg n ->
    msg_eqb ieq fuel (norm_msg m) (norm_msg n) = msg_eqb ieq fuel m n.
  Proof.
    revert m n; induction fuel as [|f IH]; intros m n Hm Hn; cbn [msg_eqb]; [reflexivity|].
    apply msg_eqb_level_norm; auto using msg_eqb_sym.
  Qed.

  (* equality of two Messages is unchanged by the trip (for every fuel, hence also for the adequate one) *)
  Theorem eq_roundtrip (fuel : nat) (m n : msg) : wf_msg m -> wf_msg n ->
    msg_eqb ieq fuel (rt m) (rt n) = msg_eqb ieq fuel (strip_msg m) (strip_msg n).
  Proof.
    intros Hm Hn. unfold rt.
    apply msg_eqb_norm; apply wf_nd_strip_all; assumption.
  Qed.
End EqProofs.

(* ------------------------------------------------------------------ fuel adequacy of msg_eqb *)

Lemma flookup_depth (n : bytes) (fs : fields) tc r : flookup n fs = Some (tc, r) -> (depth_repr r <= depth_fields fs)%nat.
Proof.
  induction fs as [|k tc' r' t IH]; cbn [flookup depth_fields]; [discriminate|].
  destruct (bytes_eqb n k); intro H; [injection H as <- <-; lia|]. specialize (IH H). lia.
Qed.

Section EqFuel.
  Variable ieq : ftype -> bytes -> bytes -> bool.

  Section Level.
    Variables inner inner' : msg -> msg -> bool.
    Variable d : nat.
    Hypothesis agree : forall a b, (depth_msg a <= d \/ depth_msg b <= d)%nat -> inner a b = inner' a b.

    Lemma item_eqb_agree ft i j : (depth_item i <= d \/ depth_item j <= d)%nat ->
      item_eqb ieq inner ft i j = item_eqb ieq inner' ft i j.
    Proof. intro H. destruct i, j; cbn [item_eqb]; try reflexivity. apply agree. exact H. Qed.

    Lemma items_eqb_agree ft l l2 : (depth_items l <= d \/ depth_items l2 <= d)%nat ->
      items_eqb ieq inner ft l l2 = items_eqb ieq inner' ft l l2.
    Proof.
      revert l2; induction l as [|i t IH]; intros [|j t2] H; cbn [items_eqb]; try reflexivity.
      cbn [depth_items] in H. rewrite item_eqb_agree, IH by lia. reflexivity.
    Qed.

    Lemma field_eqb_agree tc r tc2 r2 : (depth_repr r <= d \/ depth_repr r2 <= d)%nat ->
      field_eqb ieq inner tc r tc2 r2 = field_eqb ieq inner' tc r tc2 r2.
    Proof.
      intro H. unfold field_eqb. f_equal. f_equal.
      destruct r as [i|l], r2 as [j|l2]; cbn [depth_repr] in H.
      - apply item_eqb_agree. exact H.
      - destruct l2 as [|j t]; cbn [items_hd]; [reflexivity|]. cbn [depth_items] in H. apply item_eqb_agree. lia.
      - destruct l as [|i t]; cbn [items_hd]; [reflexivity|]. cbn [depth_items] in H. apply item_eqb_agree. lia.
      - apply items_eqb_agree. exact H.
    Qed.

    Lemma fields_sub_agree f1 f2 : (depth_fields f1 <= d \/ depth_fields f2 <= d)%nat ->
      fields_sub ieq inner f1 f2 = fields_sub ieq inner' f1 f2.
    Proof.
      induction f1 as [|k tc r t IH]; intro H; cbn [fields_sub]; [reflexivity|].
      cbn [depth_fields] in H.
      destruct (flookup k f2) as [[tc2 r2]|] eqn:E; [|reflexivity].
      pose proof (flookup_depth _ _ _ _ E).
      rewrite field_eqb_agree, IH by lia. reflexivity.
    Qed.
  End Level.

  Lemma msg_eqb_fuel_step (fuel : nat) (m n : msg) :
    (depth_msg m <= fuel \/ depth_msg n <= fuel)%nat -> msg_eqb ieq fuel m n = msg_eqb ieq (S fuel) m n.
  Proof.
    revert m n; induction fuel as [|f IH]; intros [w1 f1] [w2 f2] H.
    - cbn [depth_msg] in H. lia.
    - cbn [depth_msg] in H. change (msg_eqb_level ieq (msg_eqb ieq f) (Msg w1 f1) (Msg w2 f2)
                                   = msg_eqb_level ieq (msg_eqb ieq (S f)) (Msg w1 f1) (Msg w2 f2)).
      cbn [msg_eqb_level]. f_equal. apply (fields_sub_agree _ _ f IH). lia.
  Qed.

  (* with fuel above the smaller nesting depth the result does not depend on the fuel *)
  Theorem msg_eqb_fuel_adequate (fuel k : nat) (m n : msg) :
    (depth_msg m <= fuel \/ depth_msg n <= fuel)%nat -> msg_eqb ieq (fuel + k) m n = msg_eqb ieq fuel m n.
  Proof.
    intro H. induction k as [|k IH]; [rewrite Nat.add_0_r; reflexivity|].
    rewrite Nat.add_succ_r, <- msg_eqb_fuel_step by lia. exact IH.
  Qed.
End EqFuel.

Lemma depth_norm_all :
  (forall i, depth_item (norm_item i) = depth_item i) /\
  (forall l, depth_items (norm_items l) = depth_items l) /\
  (forall r, depth_repr (norm_repr r) = depth_repr r) /\
  (forall fs, depth_fields (norm_fields fs) = depth_fields fs) /\
  (forall m, depth_msg (norm_msg m) = depth_msg m).
Proof.
  apply msg_mutind; try reflexivity.
  - (* IMsg *) intros m IH. exact IH.
  - (* ICons *) intros i IHi t IHt. cbn [norm_items depth_items]. rewrite IHi, IHt. reflexivity.
  - (* RInline *) intros i IH. exact IH.
  - (* RArray *) intros l IH. destruct l as [|i [|j t]]; cbn [norm_repr depth_repr]; try exact IH.
    cbn [norm_items depth_items] in *. rewrite !Nat.max_0_r in *. exact IH.
  - (* FCons *) intros n tc r IHr t IHt. cbn [norm_fields depth_fields]. rewrite IHr, IHt. reflexivity.
  - (* Msg *) intros w fs IH. cbn [norm_msg depth_msg]. rewrite IH. reflexivity.
Qed.

(* the same statement for operator== run with adequate fuel *)
Theorem eq_roundtrip_adequate (ieq : ftype -> bytes -> bytes -> bool) (m n : msg) :
  (forall ft a b, ieq ft a b = ieq ft b a) -> wf_msg m -> wf_msg n ->
  msg_eq ieq (rt m) (rt n) = msg_eq ieq (strip_msg m) (strip_msg n).
Proof.
  intros Hs Hm Hn. unfold msg_eq, rt.
  rewrite !(proj2 (proj2 (proj2 (proj2 depth_norm_all)))).
  apply eq_roundtrip; assumption.
Qed.
