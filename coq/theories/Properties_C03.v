(* C03 -- A gateway delivers exactly the sent Message sequence for every byte segmentation.
   The property theorems are each closed by [exact]: of a lemma proved under Gw/, or of the framing theorem
   (the link_ theorems of Gw/TransportProofs.v) applied to the sender laws and the decoder laws that Gw/ proves for the gateway pair
   (the raw receiver is no decoder: the transport theorem itself, with RawProofs' receiver lemmas).  At the end of
   the file: concrete runs that satisfy the premises (non-vacuity).

   Reading guide.  A run of a gateway pair is [sys_run queue do_output do_input sys0 evs] for an
   ARBITRARY event list evs: EQueue m (AddOutgoingMessage), EOut maxBytes script (one DoOutput
   call; the k-th Write it makes accepts min(requested, script[k]) bytes, 0 once the script is
   exhausted), EIn maxBytes script (one DoInput call; the k-th Read returns min(requested,
   script[k], bytes in flight)).  Every theorem quantifies over all evs, i.e. over all Message
   sequences, all segmentations (zero-byte and one-byte results included), all maxBytes argument
   sequences and all interleavings of output and input calls.
     *_prefix_safety    what has been delivered is always a prefix of what was queued;
     *_completeness     once the sender has nothing left to write and nothing is in flight,
                        delivered = queued (nothing lost, duplicated, merged, split, altered);
     *_fair_completion  any continuation made of enough "rounds" -- each round an arbitrary list
                        of calls containing one DoOutput and one DoInput call that are allowed
                        to move at least one byte -- reaches that state. *)
From Coq Require Import List NArith ZArith.
From Muscle Require Import Gen.Consts Gw.GwBase Gw.TransportProofs
  Gw.FrameModel Gw.FrameProofs Gw.FrameDefault Gw.ZlibModel Gw.ZlibProofs Gw.TmplModel Gw.TmplProofs Gw.WsModel Gw.WsProofs Gw.WsDefault
  Gw.TextModel Gw.TextProofs Gw.RawModel Gw.RawProofs Gw.SlipModel Gw.SlipProofs Gw.MiniModel Gw.MiniProofs.
Import ListNotations.
Local Open Scope N_scope.

(* ====================================================================== standard binary gateway,
   MUSCLE_MESSAGE_ENCODING_DEFAULT; a Message = its flattened bytes; delivered list compared with
   the queued list AS A LIST OF MESSAGES *)
Theorem C03_binary_prefix_safety : forall max_in (evs : list (event bytes)),
  Forall (ev_wf (d_wfb max_in)) evs ->
  exists tl, ev_msgs evs = s_dlv (sys_run fs_queue d_do_output (d_do_input max_in) d_sys0 evs) ++ tl.
Proof. exact d_prefix_safety. Qed.
Print Assumptions C03_binary_prefix_safety.

Theorem C03_binary_completeness : forall max_in (evs : list (event bytes)),
  Forall (ev_wf (d_wfb max_in)) evs ->
  d_rem (s_snd (sys_run fs_queue d_do_output (d_do_input max_in) d_sys0 evs)) = [] ->
  s_pipe (sys_run fs_queue d_do_output (d_do_input max_in) d_sys0 evs) = [] ->
  s_dlv (sys_run fs_queue d_do_output (d_do_input max_in) d_sys0 evs) = ev_msgs evs.
Proof. exact d_completeness. Qed.
Print Assumptions C03_binary_completeness.

Theorem C03_binary_fair_completion : forall max_in (evs : list (event bytes)) (rs : list (list (event bytes))),
  Forall (ev_wf (d_wfb max_in)) evs -> Forall round rs ->
  (measure d_rem (fun _ => 0%nat) (sys_run fs_queue d_do_output (d_do_input max_in) d_sys0 evs) <= length rs)%nat ->
  let st := sys_run fs_queue d_do_output (d_do_input max_in) d_sys0 (evs ++ concat rs) in
  quiet d_rem st /\ s_dlv st = ev_msgs evs.
Proof. exact d_fair_completion. Qed.
Print Assumptions C03_binary_fair_completion.

Theorem C03_binary_receiver_idle : forall max_in (evs : list (event bytes)),
  Forall (ev_wf (d_wfb max_in)) evs ->
  d_rem (s_snd (sys_run fs_queue d_do_output (d_do_input max_in) d_sys0 evs)) = [] ->
  s_pipe (sys_run fs_queue d_do_output (d_do_input max_in) d_sys0 evs) = [] ->
  exists cr', fr_norm unit (s_rcv (sys_run fs_queue d_do_output (d_do_input max_in) d_sys0 evs)) = idle unit cr'.
Proof. exact d_receiver_idle. Qed.
Print Assumptions C03_binary_receiver_idle.

(* the split lemma: splitting a read changes nothing observable *)
Theorem C03_binary_feed_split : forall max_in st a b,
  snd (d_feed max_in st (a ++ b)) =
  snd (d_feed max_in st a) ++ snd (d_feed max_in (fst (d_feed max_in st a)) b).
Proof. exact d_feed_split. Qed.
Print Assumptions C03_binary_feed_split.

(* prefix safety for ANY codec pair satisfying the premise codec_sync (this is what the zlib encodings
   instantiate: the premise then speaks about deflate/inflate); completeness and fair completion for any
   codec are link_completeness / link_fair_completion with the same two laws *)
Theorem C03_binary_codec_prefix_safety :
  forall (Msg CS CR : Type) (flat : CS -> Msg -> CS * bytes) (unflat : CR -> bytes -> CR * option Msg)
         (body_size : bytes -> option N) (max_in : N) (cs0 : CS) (cr0 : CR),
  (forall c m, f_hs <= blen (snd (flat c m))) ->
  forall (sync : CS -> CR -> Prop) (wfb : Msg -> Prop),
  sync cs0 cr0 ->
  (forall cs cr m, sync cs cr -> wfb m ->
     exists hdr payload cr',
       snd (flat cs m) = hdr ++ payload /\ blen hdr = f_hs /\
       body_size hdr = Some (blen payload) /\
       blen payload <= max_in /\ f_hs + blen payload < two32 /\
       unflat cr (snd (flat cs m)) = (cr', Some m) /\ sync (fst (flat cs m)) cr') ->
  forall evs : list (event Msg),
  Forall (ev_wf wfb) evs ->
  exists tl, ev_msgs evs =
             s_dlv (sys_run fs_queue (f_do_output Msg CS flat) (f_do_input Msg CR unflat body_size max_in) (f_sys0 Msg CS CR cs0 cr0) evs) ++ tl.
Proof.
  exact (fun Msg CS CR flat unflat body_size max_in cs0 cr0 Hlen sync wfb H0 Hc =>
  link_prefix_safety (f_sender Msg CS flat cs0 Hlen wfb) (f_decoder Msg CS CR flat unflat body_size max_in cs0 cr0 Hlen sync wfb H0 Hc)).
Qed.
Print Assumptions C03_binary_codec_prefix_safety.

(* ====================================================================== standard binary gateway, the
   nine zlib encodings.  PREMISE (zlib is external code): for deflate/inflate streams that are in step
   (zsync), inflating what deflate(Z_SYNC_FLUSH) produced gives the input back and leaves the streams
   in step; the streams start in step.  Everything around zlib is modelled: the 32-byte threshold
   below which a Message goes out uncompressed with a DEFAULT header and the codec untouched, the
   ZLibCodec header (magic, raw length), codec creation per level, dependent / independent mode. *)
Theorem C03_zlib_prefix_safety :
  forall (DS IS : Type) (ds_init : N -> DS) (is_init : IS)
         (deflate : DS -> bool -> bytes -> DS * bytes)
         (inflate : IS -> bool -> bytes -> N -> IS * option bytes)
         (oenc : N) (indep : bool) (max_in : N) (zsync : DS -> IS -> Prop),
  (forall level, zsync (ds_init level) is_init) ->
  (forall ds is b, zsync ds is -> b <> [] ->
     exists is', inflate is indep (snd (deflate ds indep b)) (blen b) = (is', Some b) /\
                 zsync (fst (deflate ds indep b)) is') ->
  forall evs : list (event bytes),
  Forall (ev_wf (z_wfb DS deflate indep max_in)) evs ->
  exists tl, ev_msgs evs =
             s_dlv (sys_run fs_queue (z_do_output DS ds_init deflate oenc indep)
                      (z_do_input IS is_init inflate max_in) (z_sys0 DS IS) evs) ++ tl.
Proof.
  exact (fun DS IS ds_init is_init deflate inflate oenc indep max_in zsync H1 H2 =>
  link_prefix_safety (z_sender DS ds_init deflate oenc indep max_in) (z_decoder DS IS ds_init is_init deflate inflate oenc indep max_in zsync H1 H2)).
Qed.
Print Assumptions C03_zlib_prefix_safety.

Theorem C03_zlib_completeness :
  forall (DS IS : Type) (ds_init : N -> DS) (is_init : IS)
         (deflate : DS -> bool -> bytes -> DS * bytes)
         (inflate : IS -> bool -> bytes -> N -> IS * option bytes)
         (oenc : N) (indep : bool) (max_in : N) (zsync : DS -> IS -> Prop),
  (forall level, zsync (ds_init level) is_init) ->
  (forall ds is b, zsync ds is -> b <> [] ->
     exists is', inflate is indep (snd (deflate ds indep b)) (blen b) = (is', Some b) /\
                 zsync (fst (deflate ds indep b)) is') ->
  forall evs : list (event bytes),
  Forall (ev_wf (z_wfb DS deflate indep max_in)) evs ->
  z_rem DS ds_init deflate oenc indep
    (s_snd (sys_run fs_queue (z_do_output DS ds_init deflate oenc indep)
              (z_do_input IS is_init inflate max_in) (z_sys0 DS IS) evs)) = [] ->
  s_pipe (sys_run fs_queue (z_do_output DS ds_init deflate oenc indep)
            (z_do_input IS is_init inflate max_in) (z_sys0 DS IS) evs) = [] ->
  s_dlv (sys_run fs_queue (z_do_output DS ds_init deflate oenc indep)
           (z_do_input IS is_init inflate max_in) (z_sys0 DS IS) evs) = ev_msgs evs.
Proof.
  exact (fun DS IS ds_init is_init deflate inflate oenc indep max_in zsync H1 H2 =>
  link_completeness (z_sender DS ds_init deflate oenc indep max_in) (z_decoder DS IS ds_init is_init deflate inflate oenc indep max_in zsync H1 H2)).
Qed.
Print Assumptions C03_zlib_completeness.

Theorem C03_zlib_fair_completion :
  forall (DS IS : Type) (ds_init : N -> DS) (is_init : IS)
         (deflate : DS -> bool -> bytes -> DS * bytes)
         (inflate : IS -> bool -> bytes -> N -> IS * option bytes)
         (oenc : N) (indep : bool) (max_in : N) (zsync : DS -> IS -> Prop),
  (forall level, zsync (ds_init level) is_init) ->
  (forall ds is b, zsync ds is -> b <> [] ->
     exists is', inflate is indep (snd (deflate ds indep b)) (blen b) = (is', Some b) /\
                 zsync (fst (deflate ds indep b)) is') ->
  forall (evs : list (event bytes)) (rs : list (list (event bytes))),
  Forall (ev_wf (z_wfb DS deflate indep max_in)) evs -> Forall round rs ->
  (measure (z_rem DS ds_init deflate oenc indep) (fun _ => 0%nat)
     (sys_run fs_queue (z_do_output DS ds_init deflate oenc indep)
        (z_do_input IS is_init inflate max_in) (z_sys0 DS IS) evs) <= length rs)%nat ->
  let st := sys_run fs_queue (z_do_output DS ds_init deflate oenc indep)
              (z_do_input IS is_init inflate max_in) (z_sys0 DS IS) (evs ++ concat rs) in
  quiet (z_rem DS ds_init deflate oenc indep) st /\ s_dlv st = ev_msgs evs.
Proof.
  exact (fun DS IS ds_init is_init deflate inflate oenc indep max_in zsync H1 H2 =>
  link_fair_completion (z_sender DS ds_init deflate oenc indep max_in) (z_decoder DS IS ds_init is_init deflate inflate oenc indep max_in zsync H1 H2)).
Qed.
Print Assumptions C03_zlib_fair_completion.

(* ====================================================================== templating gateway (DEFAULT
   encoding).  PREMISES (Message-level functions are external here): what-only Messages are determined
   by their what-code; Flatten/Unflatten round-trips; TemplatedFlatten/TemplatedUnflatten round-trips
   against any template that DESCRIBES the Message (same fields, types, item counts); the hash of a
   template is the hash of its Message; bodies stay below 2^31 bytes (the top bit of both header words
   is a flag).  NO injectivity of TemplateHashCode64 is assumed: the model follows the repaired gateway,
   which checks the cached template against the Message (finding: C03_templating_collision_refuted
   shows what trusting the hash does).  Modelled and proved: the wire forms,
   the flag bits, and that the two LRU caches stay EQUAL (entries, order, byte tally) so that every
   payload-only Message finds its template on the other side. *)
Theorem C03_templating_prefix_safety :
  forall (MSG TPL : Type) (m_trivial : MSG -> bool) (m_what : MSG -> N) (m_of_what : N -> MSG)
         (m_tid : MSG -> N) (m_tmpl : MSG -> TPL) (t_tid t_size : TPL -> N)
         (m_flat : MSG -> bytes) (m_unflat : bytes -> option MSG)
         (m_tflat : TPL -> MSG -> bytes) (m_tunflat : TPL -> bytes -> option MSG)
         (t_describes : TPL -> MSG -> bool) (max_cache max_in : N) (wfm : MSG -> Prop),
  (forall m, wfm m -> m_trivial m = true -> m = m_of_what (m_what m) /\ m_what m < two32) ->
  (forall m, wfm m -> m_trivial m = false -> m_unflat (m_flat m) = Some m /\ blen (m_flat m) <> 4) ->
  (forall m t, wfm m -> m_trivial m = false -> t_describes t m = true -> m_tunflat t (m_tflat t m) = Some m) ->
  (forall m, wfm m -> t_tid (m_tmpl m) = m_tid m /\ m_tid m < two64) ->
  (forall m t, wfm m -> blen (m_flat m) < flag_bit /\ blen (m_flat m) <= max_in /\
                        8 + blen (m_tflat t m) < flag_bit /\ 8 + blen (m_tflat t m) <= max_in) ->
  4 <= max_in ->
  forall evs : list (event MSG),
  Forall (ev_wf wfm) evs ->
  exists tl, ev_msgs evs = s_dlv (sys_run fs_queue (tm_do_output MSG TPL m_trivial m_what m_of_what m_tid m_tmpl t_size m_flat m_tflat t_describes max_cache)
                      (tm_do_input MSG TPL m_of_what m_tmpl t_tid t_size m_unflat m_tunflat max_cache max_in) (tm_sys0 MSG TPL) evs) ++ tl.
Proof.
  exact (fun MSG TPL m_trivial m_what m_of_what m_tid m_tmpl t_tid t_size m_flat m_unflat m_tflat m_tunflat t_describes max_cache max_in wfm H1 H2 H3 H4 H5 H6 =>
  link_prefix_safety (tm_sender MSG TPL m_trivial m_what m_of_what m_tid m_tmpl t_size m_flat m_tflat t_describes max_cache max_in wfm H6)
    (tm_decoder MSG TPL m_trivial m_what m_of_what m_tid m_tmpl t_tid t_size m_flat m_unflat m_tflat m_tunflat t_describes max_cache max_in wfm H1 H2 H3 H4 H5 H6)).
Qed.
Print Assumptions C03_templating_prefix_safety.

Theorem C03_templating_completeness :
  forall (MSG TPL : Type) (m_trivial : MSG -> bool) (m_what : MSG -> N) (m_of_what : N -> MSG)
         (m_tid : MSG -> N) (m_tmpl : MSG -> TPL) (t_tid t_size : TPL -> N)
         (m_flat : MSG -> bytes) (m_unflat : bytes -> option MSG)
         (m_tflat : TPL -> MSG -> bytes) (m_tunflat : TPL -> bytes -> option MSG)
         (t_describes : TPL -> MSG -> bool) (max_cache max_in : N) (wfm : MSG -> Prop),
  (forall m, wfm m -> m_trivial m = true -> m = m_of_what (m_what m) /\ m_what m < two32) ->
  (forall m, wfm m -> m_trivial m = false -> m_unflat (m_flat m) = Some m /\ blen (m_flat m) <> 4) ->
  (forall m t, wfm m -> m_trivial m = false -> t_describes t m = true -> m_tunflat t (m_tflat t m) = Some m) ->
  (forall m, wfm m -> t_tid (m_tmpl m) = m_tid m /\ m_tid m < two64) ->
  (forall m t, wfm m -> blen (m_flat m) < flag_bit /\ blen (m_flat m) <= max_in /\
                        8 + blen (m_tflat t m) < flag_bit /\ 8 + blen (m_tflat t m) <= max_in) ->
  4 <= max_in ->
  forall evs : list (event MSG),
  Forall (ev_wf wfm) evs ->
  tm_rem MSG TPL m_trivial m_what m_of_what m_tid m_tmpl t_size m_flat m_tflat t_describes max_cache (s_snd (sys_run fs_queue (tm_do_output MSG TPL m_trivial m_what m_of_what m_tid m_tmpl t_size m_flat m_tflat t_describes max_cache)
                      (tm_do_input MSG TPL m_of_what m_tmpl t_tid t_size m_unflat m_tunflat max_cache max_in) (tm_sys0 MSG TPL) evs)) = [] ->
  s_pipe (sys_run fs_queue (tm_do_output MSG TPL m_trivial m_what m_of_what m_tid m_tmpl t_size m_flat m_tflat t_describes max_cache)
                      (tm_do_input MSG TPL m_of_what m_tmpl t_tid t_size m_unflat m_tunflat max_cache max_in) (tm_sys0 MSG TPL) evs) = [] ->
  s_dlv (sys_run fs_queue (tm_do_output MSG TPL m_trivial m_what m_of_what m_tid m_tmpl t_size m_flat m_tflat t_describes max_cache)
                      (tm_do_input MSG TPL m_of_what m_tmpl t_tid t_size m_unflat m_tunflat max_cache max_in) (tm_sys0 MSG TPL) evs) = ev_msgs evs.
Proof.
  exact (fun MSG TPL m_trivial m_what m_of_what m_tid m_tmpl t_tid t_size m_flat m_unflat m_tflat m_tunflat t_describes max_cache max_in wfm H1 H2 H3 H4 H5 H6 =>
  link_completeness (tm_sender MSG TPL m_trivial m_what m_of_what m_tid m_tmpl t_size m_flat m_tflat t_describes max_cache max_in wfm H6)
    (tm_decoder MSG TPL m_trivial m_what m_of_what m_tid m_tmpl t_tid t_size m_flat m_unflat m_tflat m_tunflat t_describes max_cache max_in wfm H1 H2 H3 H4 H5 H6)).
Qed.
Print Assumptions C03_templating_completeness.

Theorem C03_templating_fair_completion :
  forall (MSG TPL : Type) (m_trivial : MSG -> bool) (m_what : MSG -> N) (m_of_what : N -> MSG)
         (m_tid : MSG -> N) (m_tmpl : MSG -> TPL) (t_tid t_size : TPL -> N)
         (m_flat : MSG -> bytes) (m_unflat : bytes -> option MSG)
         (m_tflat : TPL -> MSG -> bytes) (m_tunflat : TPL -> bytes -> option MSG)
         (t_describes : TPL -> MSG -> bool) (max_cache max_in : N) (wfm : MSG -> Prop),
  (forall m, wfm m -> m_trivial m = true -> m = m_of_what (m_what m) /\ m_what m < two32) ->
  (forall m, wfm m -> m_trivial m = false -> m_unflat (m_flat m) = Some m /\ blen (m_flat m) <> 4) ->
  (forall m t, wfm m -> m_trivial m = false -> t_describes t m = true -> m_tunflat t (m_tflat t m) = Some m) ->
  (forall m, wfm m -> t_tid (m_tmpl m) = m_tid m /\ m_tid m < two64) ->
  (forall m t, wfm m -> blen (m_flat m) < flag_bit /\ blen (m_flat m) <= max_in /\
                        8 + blen (m_tflat t m) < flag_bit /\ 8 + blen (m_tflat t m) <= max_in) ->
  4 <= max_in ->
  forall (evs : list (event MSG)) (rs : list (list (event MSG))),
  Forall (ev_wf wfm) evs -> Forall round rs ->
  (measure (tm_rem MSG TPL m_trivial m_what m_of_what m_tid m_tmpl t_size m_flat m_tflat t_describes max_cache) (fun _ => 0%nat) (sys_run fs_queue (tm_do_output MSG TPL m_trivial m_what m_of_what m_tid m_tmpl t_size m_flat m_tflat t_describes max_cache)
                      (tm_do_input MSG TPL m_of_what m_tmpl t_tid t_size m_unflat m_tunflat max_cache max_in) (tm_sys0 MSG TPL) evs) <= length rs)%nat ->
  let st := (sys_run fs_queue (tm_do_output MSG TPL m_trivial m_what m_of_what m_tid m_tmpl t_size m_flat m_tflat t_describes max_cache)
                      (tm_do_input MSG TPL m_of_what m_tmpl t_tid t_size m_unflat m_tunflat max_cache max_in) (tm_sys0 MSG TPL) (evs ++ concat rs)) in
  quiet (tm_rem MSG TPL m_trivial m_what m_of_what m_tid m_tmpl t_size m_flat m_tflat t_describes max_cache) st /\ s_dlv st = ev_msgs evs.
Proof.
  exact (fun MSG TPL m_trivial m_what m_of_what m_tid m_tmpl t_tid t_size m_flat m_unflat m_tflat m_tunflat t_describes max_cache max_in wfm H1 H2 H3 H4 H5 H6 =>
  link_fair_completion (tm_sender MSG TPL m_trivial m_what m_of_what m_tid m_tmpl t_size m_flat m_tflat t_describes max_cache max_in wfm H6)
    (tm_decoder MSG TPL m_trivial m_what m_of_what m_tid m_tmpl t_tid t_size m_flat m_unflat m_tflat m_tunflat t_describes max_cache max_in wfm H1 H2 H3 H4 H5 H6)).
Qed.
Print Assumptions C03_templating_fair_completion.

Theorem C03_templating_collision_refuted :
  ev_msgs ToyCollide.evs = [ToyCollide.A; ToyCollide.B] /\
  s_dlv (ToyCollide.run (fun _ _ => true)) = [ToyCollide.A; (1, [5; 0; 0])] /\
  s_dlv (ToyCollide.run Toy.t_describes) = [ToyCollide.A; ToyCollide.B].
Proof. exact ToyCollide.tm_collision_refuted. Qed.
Print Assumptions C03_templating_collision_refuted.

(* ====================================================================== WebSocket gateway pair after the
   handshake, a MessageIOGateway (DEFAULT encoding) as slave on both ends; [client] = true: the sender is
   the client (frames masked with the keys of [keys0], any four-byte keys), the receiver the server;
   false: server -> client.  Domain: d_wfb bodies whose slave frame fits the 10 MB frame limit.
   Modelled: CreateReplyFrame (7/16/64-bit lengths, mask), the header/payload receive loop, un-masking,
   ExecuteReceivedFrame for binary/close/continuation/pong; NOT modelled: the HTTP handshake, TEXT and
   PING frames.  The model follows the repaired key byte order (C03_websocket_mask_order_refuted). *)
Theorem C03_websocket_prefix_safety : forall (client : bool) (max_in : N) (keys0 : list bytes),
  Forall (fun k => length k = 4%nat) keys0 ->
  forall evs : list (event bytes),
  Forall (ev_wf (wsd_wfm max_in)) evs ->
  exists tl, ev_msgs evs = s_dlv (sys_run ws_queue (ws_do_output bytes wsd_sflat client)
                      (wr_do_input bytes (frecv unit) (wsd_sfeed max_in) (negb client)) (wsd_sys0 keys0) evs) ++ tl.
Proof. exact (fun client max_in keys0 Hk => link_prefix_safety (wsd_sender client max_in keys0) (wsd_decoder client max_in keys0 Hk)). Qed.
Print Assumptions C03_websocket_prefix_safety.

Theorem C03_websocket_completeness : forall (client : bool) (max_in : N) (keys0 : list bytes),
  Forall (fun k => length k = 4%nat) keys0 ->
  forall evs : list (event bytes),
  Forall (ev_wf (wsd_wfm max_in)) evs ->
  wsd_rem client (s_snd (sys_run ws_queue (ws_do_output bytes wsd_sflat client)
                      (wr_do_input bytes (frecv unit) (wsd_sfeed max_in) (negb client)) (wsd_sys0 keys0) evs)) = [] ->
  s_pipe (sys_run ws_queue (ws_do_output bytes wsd_sflat client)
                      (wr_do_input bytes (frecv unit) (wsd_sfeed max_in) (negb client)) (wsd_sys0 keys0) evs) = [] ->
  s_dlv (sys_run ws_queue (ws_do_output bytes wsd_sflat client)
                      (wr_do_input bytes (frecv unit) (wsd_sfeed max_in) (negb client)) (wsd_sys0 keys0) evs) = ev_msgs evs.
Proof. exact (fun client max_in keys0 Hk => link_completeness (wsd_sender client max_in keys0) (wsd_decoder client max_in keys0 Hk)). Qed.
Print Assumptions C03_websocket_completeness.

Theorem C03_websocket_fair_completion : forall (client : bool) (max_in : N) (keys0 : list bytes),
  Forall (fun k => length k = 4%nat) keys0 ->
  forall (evs : list (event bytes)) (rs : list (list (event bytes))),
  Forall (ev_wf (wsd_wfm max_in)) evs -> Forall round rs ->
  (measure (wsd_rem client) (fun _ => 0%nat) (sys_run ws_queue (ws_do_output bytes wsd_sflat client)
                      (wr_do_input bytes (frecv unit) (wsd_sfeed max_in) (negb client)) (wsd_sys0 keys0) evs) <= length rs)%nat ->
  let st := (sys_run ws_queue (ws_do_output bytes wsd_sflat client)
                      (wr_do_input bytes (frecv unit) (wsd_sfeed max_in) (negb client)) (wsd_sys0 keys0) (evs ++ concat rs)) in
  quiet (wsd_rem client) st /\ s_dlv st = ev_msgs evs.
Proof. exact (fun client max_in keys0 Hk => link_fair_completion (wsd_sender client max_in keys0) (wsd_decoder client max_in keys0 Hk)). Qed.
Print Assumptions C03_websocket_fair_completion.

(* any frame the sender builds -- any payload up to 10 MB (7-, 16- and 64-bit length forms), masked with any
   four-byte key or unmasked -- is parsed back to its payload by the peer of the opposite role, whatever the
   slave gateway is; and the split lemma for the frame parser *)
Theorem C03_websocket_frame_roundtrip :
  forall (Msg SR : Type) (sfeed : SR -> bytes -> SR * list Msg) (client : bool) (key data : bytes)
         (sl sl' : SR) (outs : list Msg) (m0 : bytes),
  data <> [] -> blen data <= ws_max_payload -> (client = true -> length key = 4%nat) ->
  sfeed sl data = (sl', outs) ->
  wr_feed Msg SR sfeed (negb client) (ws_idle SR m0 sl) (ws_frame client key WS_BINARY data) =
  (ws_idle SR (if client then key else [0; 0; 0; 0]) sl', outs).
Proof. exact ws_parse_frame. Qed.
Print Assumptions C03_websocket_frame_roundtrip.

Theorem C03_websocket_feed_split :
  forall (Msg SR : Type) (sfeed : SR -> bytes -> SR * list Msg) (client : bool) (a : bytes) (st : wrecv SR) (b : bytes),
  wr_feed Msg SR sfeed client st (a ++ b) =
  let '(st1, o1) := wr_feed Msg SR sfeed client st a in
  let '(st2, o2) := wr_feed Msg SR sfeed client st1 b in (st2, o1 ++ o2).
Proof. exact wr_feed_app. Qed.
Print Assumptions C03_websocket_feed_split.

(* the finding: key written byte-reversed (old client behaviour) => the server un-masks to garbage *)
Theorem C03_websocket_mask_order_refuted :
  let key := [1; 2; 3; 4] in let data := [10; 20; 30; 40; 50] in
  let echo (s : unit) (d : bytes) := (s, [d]) in
  snd (wr_feed bytes unit echo false (wr_init tt) (ws_frame_old key WS_BINARY data)) = [[15; 21; 31; 45; 55]] /\
  snd (wr_feed bytes unit echo false (wr_init tt) (ws_frame true key WS_BINARY data)) = [data].
Proof. exact ws_mask_order_refuted. Qed.
Print Assumptions C03_websocket_mask_order_refuted.

(* ====================================================================== plain text gateway;
   Messages = lists of lines; lines free of CR, LF, NUL (empty lines allowed); terminator CRLF,
   CR or LF; compared: the list of all lines, in order *)
Theorem C03_text_prefix_safety : forall eol, eol_ok eol -> forall evs : list (event (list bytes)),
  Forall (ev_wf text_wfm) evs ->
  exists tl, concat (ev_msgs evs) =
             concat (s_dlv (sys_run ts_queue (t_do_output eol) t_do_input text_sys0 evs)) ++ tl.
Proof. exact (fun eol He => link_prefix_safety (text_sender eol He) (text_decoder eol He)). Qed.
Print Assumptions C03_text_prefix_safety.

Theorem C03_text_completeness : forall eol, eol_ok eol -> forall evs : list (event (list bytes)),
  Forall (ev_wf text_wfm) evs ->
  ts_rem eol (s_snd (sys_run ts_queue (t_do_output eol) t_do_input text_sys0 evs)) = [] ->
  s_pipe (sys_run ts_queue (t_do_output eol) t_do_input text_sys0 evs) = [] ->
  concat (s_dlv (sys_run ts_queue (t_do_output eol) t_do_input text_sys0 evs)) = concat (ev_msgs evs).
Proof. exact (fun eol He => link_completeness (text_sender eol He) (text_decoder eol He)). Qed.
Print Assumptions C03_text_completeness.

Theorem C03_text_fair_completion : forall eol, eol_ok eol ->
  forall (evs : list (event (list bytes))) (rs : list (list (event (list bytes)))),
  Forall (ev_wf text_wfm) evs -> Forall round rs ->
  (measure (ts_rem eol) ts_mu (sys_run ts_queue (t_do_output eol) t_do_input text_sys0 evs) <= length rs)%nat ->
  let st := sys_run ts_queue (t_do_output eol) t_do_input text_sys0 (evs ++ concat rs) in
  quiet (ts_rem eol) st /\ concat (s_dlv st) = concat (ev_msgs evs).
Proof. exact (fun eol He => link_fair_completion (text_sender eol He) (text_decoder eol He)). Qed.
Print Assumptions C03_text_fair_completion.

(* the receiver alone, fed by a foreign sender in which every line has its OWN terminator (CR, LF or CRLF; the one
   inherently ambiguous combination -- a CR-terminated line directly followed by an empty LF-terminated line -- excluded):
   for every sequence of DoInput calls (any maxBytes, any read scripts) the lines delivered are a prefix of the lines
   sent, and all of them, with nothing left buffered, once the stream has been consumed *)
Theorem C03_text_mixed_terminators : forall (lts : list (bytes * bytes)) (calls : list (N * list N)),
  mixed_ok false lts ->
  let '(st', outs, pipe') := t_recv_run tr_init (mixed_wire lts) calls in
  (exists tl, map fst lts = concat outs ++ tl) /\
  (pipe' = [] -> concat outs = map fst lts /\ tr_text st' = []).
Proof. exact text_mixed_terminators. Qed.
Print Assumptions C03_text_mixed_terminators.

(* outside the domain: with a NUL byte in the stream what is delivered depends on the segmentation *)
Theorem C03_text_nul_refuted :
  let big := c_MUSCLE_NO_LIMIT in
  let '(_, o1, _) := t_do_input tr_init big [big] nul_stream in
  let '(r2, o2a, p2) := t_do_input tr_init big [3] nul_stream in
  let '(_, o2b, _) := t_do_input r2 big [big] p2 in
  concat o1 = [[97; 98]] /\ concat (o2a ++ o2b) = [[97; 98; 99; 100]].
Proof. exact text_nul_refuted. Qed.
Print Assumptions C03_text_nul_refuted.

(* ====================================================================== raw gateway, both receive
   modes (minChunkSize = 0: immediate forward; > 0: fixed-size chunk assembly); non-empty chunks;
   compared: the concatenation of all chunk bytes *)
Theorem C03_raw_prefix_safety : forall minc maxc (evs : list (event (list bytes))),
  Forall (ev_wf raw_wfm) evs ->
  exists tl, flat_chunks (ev_msgs evs) =
             flat_chunks (s_dlv (sys_run rs_queue raw_do_output (r_do_input minc maxc) raw_sys0 evs)) ++ tl.
Proof.
  exact (fun minc maxc => prefix_safety rs_queue raw_do_output (r_do_input minc maxc) rs_init rr_init raw_wfm (rs_qbytes r_trunc)
  flat_chunks flat_chunks (rs_rem r_trunc) (fun s _ => rs_wf s) (raw_RRel minc)
  (sl_wire_nil raw_sender) (sl_init raw_sender) (sl_queue raw_sender) (sl_out raw_sender)
  (raw_R_init minc) (raw_R_in minc maxc) (raw_decode_prefix minc)).
Qed.
Print Assumptions C03_raw_prefix_safety.

Theorem C03_raw_completeness : forall minc maxc (evs : list (event (list bytes))),
  Forall (ev_wf raw_wfm) evs ->
  rs_rem r_trunc (s_snd (sys_run rs_queue raw_do_output (r_do_input minc maxc) raw_sys0 evs)) = [] ->
  s_pipe (sys_run rs_queue raw_do_output (r_do_input minc maxc) raw_sys0 evs) = [] ->
  flat_chunks (s_dlv (sys_run rs_queue raw_do_output (r_do_input minc maxc) raw_sys0 evs))
    ++ rr_pend (s_rcv (sys_run rs_queue raw_do_output (r_do_input minc maxc) raw_sys0 evs))
  = flat_chunks (ev_msgs evs).
Proof.
  exact (fun minc maxc => completeness rs_queue raw_do_output (r_do_input minc maxc) rs_init rr_init raw_wfm (rs_qbytes r_trunc)
  flat_chunks flat_chunks rr_pend (rs_rem r_trunc) (fun s _ => rs_wf s) (raw_RRel minc)
  (sl_wire_nil raw_sender) (sl_init raw_sender) (sl_queue raw_sender) (sl_out raw_sender)
  (raw_R_init minc) (raw_R_in minc maxc) (raw_decode_complete minc)).
Qed.
Print Assumptions C03_raw_completeness.

Theorem C03_raw_fair_completion : forall minc maxc (evs : list (event (list bytes))) (rs : list (list (event (list bytes)))),
  Forall (ev_wf raw_wfm) evs -> Forall round rs ->
  (measure (rs_rem r_trunc) (fun _ => 0%nat) (sys_run rs_queue raw_do_output (r_do_input minc maxc) raw_sys0 evs) <= length rs)%nat ->
  let st := sys_run rs_queue raw_do_output (r_do_input minc maxc) raw_sys0 (evs ++ concat rs) in
  quiet (rs_rem r_trunc) st /\ flat_chunks (s_dlv st) ++ rr_pend (s_rcv st) = flat_chunks (ev_msgs evs).
Proof.
  exact (fun minc maxc => fair_completion rs_queue raw_do_output (r_do_input minc maxc) rs_init rr_init raw_wfm (rs_qbytes r_trunc)
  flat_chunks flat_chunks rr_pend (rs_rem r_trunc) (fun s _ => rs_wf s) (raw_RRel minc)
  (sl_wire_nil raw_sender) (sl_init raw_sender) (sl_queue raw_sender) (sl_out raw_sender)
  (raw_R_init minc) (raw_R_in minc maxc) (raw_decode_complete minc)
  (fun _ => 0%nat) (sl_progress raw_sender) (raw_in_progress minc maxc)).
Qed.
Print Assumptions C03_raw_fair_completion.

(* ====================================================================== SLIP gateway; non-empty
   chunks of arbitrary bytes (END/ESC included); compared: the list of all chunks (frames), in order *)
Theorem C03_slip_prefix_safety : forall evs : list (event (list bytes)),
  Forall (ev_wf raw_wfm) evs ->
  exists tl, concat (ev_msgs evs) = concat (s_dlv (sys_run rs_queue slip_do_output sl_do_input slip_sys0 evs)) ++ tl.
Proof. exact (link_prefix_safety slip_sender slip_decoder). Qed.
Print Assumptions C03_slip_prefix_safety.

Theorem C03_slip_completeness : forall evs : list (event (list bytes)),
  Forall (ev_wf raw_wfm) evs ->
  rs_rem slip_xform (s_snd (sys_run rs_queue slip_do_output sl_do_input slip_sys0 evs)) = [] ->
  s_pipe (sys_run rs_queue slip_do_output sl_do_input slip_sys0 evs) = [] ->
  concat (s_dlv (sys_run rs_queue slip_do_output sl_do_input slip_sys0 evs)) = concat (ev_msgs evs).
Proof. exact (link_completeness slip_sender slip_decoder). Qed.
Print Assumptions C03_slip_completeness.

Theorem C03_slip_fair_completion : forall (evs : list (event (list bytes))) (rs : list (list (event (list bytes)))),
  Forall (ev_wf raw_wfm) evs -> Forall round rs ->
  (measure (rs_rem slip_xform) (fun _ => 0%nat) (sys_run rs_queue slip_do_output sl_do_input slip_sys0 evs) <= length rs)%nat ->
  let st := sys_run rs_queue slip_do_output sl_do_input slip_sys0 (evs ++ concat rs) in
  quiet (rs_rem slip_xform) st /\ concat (s_dlv st) = concat (ev_msgs evs).
Proof. exact (link_fair_completion slip_sender slip_decoder). Qed.
Print Assumptions C03_slip_fair_completion.

(* the SLIP split lemma and the frame round trip it rests on *)
Theorem C03_slip_feed_split : forall a st b,
  sl_feed st (a ++ b) =
  let '(st1, o1) := sl_feed st a in let '(st2, o2) := sl_feed st1 b in (st2, o1 ++ o2).
Proof. exact sl_feed_app. Qed.
Print Assumptions C03_slip_feed_split.

Theorem C03_slip_frames_roundtrip : forall cs, Forall nonempty cs ->
  sl_feed (mkSR [] false) (concat (map sl_encode cs)) = (mkSR [] false, cs).
Proof. exact sl_feed_frames. Qed.
Print Assumptions C03_slip_frames_roundtrip.


(* ====================================================================== interoperation with the C "mini" gateway
   (lang/c/minimessage/MiniMessageGateway.c), which speaks the DEFAULT encoding: a MiniMessageGateway sender feeding
   the C++ MessageIOGateway receiver, and the C++ sender feeding a MiniMessageGateway receiver (which hands over at
   most one Message per MGDoInput call).  Domain of the second pair: flattened size at least 1 and small enough
   that the mini receiver's doubled input buffer stays below 2^32 bytes. *)
Theorem C03_mini_to_cpp_prefix_safety : forall max_in (evs : list (event bytes)),
  Forall (ev_wf (d_wfb max_in)) evs ->
  exists tl, ev_msgs evs = s_dlv (sys_run ms_queue mg_do_output (d_do_input max_in) m2c_sys0 evs) ++ tl.
Proof. exact (fun max_in => link_prefix_safety (ms_sender _) (d_decoder max_in)). Qed.
Print Assumptions C03_mini_to_cpp_prefix_safety.

Theorem C03_mini_to_cpp_completeness : forall max_in (evs : list (event bytes)),
  Forall (ev_wf (d_wfb max_in)) evs ->
  ms_rem (s_snd (sys_run ms_queue mg_do_output (d_do_input max_in) m2c_sys0 evs)) = [] ->
  s_pipe (sys_run ms_queue mg_do_output (d_do_input max_in) m2c_sys0 evs) = [] ->
  s_dlv (sys_run ms_queue mg_do_output (d_do_input max_in) m2c_sys0 evs) = ev_msgs evs.
Proof. exact (fun max_in => link_completeness (ms_sender _) (d_decoder max_in)). Qed.
Print Assumptions C03_mini_to_cpp_completeness.

Theorem C03_mini_to_cpp_fair_completion : forall max_in (evs : list (event bytes)) (rs : list (list (event bytes))),
  Forall (ev_wf (d_wfb max_in)) evs -> Forall round rs ->
  (measure ms_rem (fun _ => 0%nat) (sys_run ms_queue mg_do_output (d_do_input max_in) m2c_sys0 evs) <= length rs)%nat ->
  let st := sys_run ms_queue mg_do_output (d_do_input max_in) m2c_sys0 (evs ++ concat rs) in
  quiet ms_rem st /\ s_dlv st = ev_msgs evs.
Proof. exact (fun max_in => link_fair_completion (ms_sender _) (d_decoder max_in)). Qed.
Print Assumptions C03_mini_to_cpp_fair_completion.

Theorem C03_cpp_to_mini_prefix_safety : forall evs : list (event bytes),
  Forall (ev_wf mg_wfm) evs ->
  exists tl, ev_msgs evs = s_dlv (sys_run fs_queue d_do_output mg_do_input c2m_sys0 evs) ++ tl.
Proof. exact (link_prefix_safety (d_sender mg_wfm) mg_decoder). Qed.
Print Assumptions C03_cpp_to_mini_prefix_safety.

Theorem C03_cpp_to_mini_completeness : forall evs : list (event bytes),
  Forall (ev_wf mg_wfm) evs ->
  d_rem (s_snd (sys_run fs_queue d_do_output mg_do_input c2m_sys0 evs)) = [] ->
  s_pipe (sys_run fs_queue d_do_output mg_do_input c2m_sys0 evs) = [] ->
  s_dlv (sys_run fs_queue d_do_output mg_do_input c2m_sys0 evs) = ev_msgs evs.
Proof. exact (link_completeness (d_sender mg_wfm) mg_decoder). Qed.
Print Assumptions C03_cpp_to_mini_completeness.

Theorem C03_cpp_to_mini_fair_completion : forall (evs : list (event bytes)) (rs : list (list (event bytes))),
  Forall (ev_wf mg_wfm) evs -> Forall round rs ->
  (measure d_rem (fun _ => 0%nat) (sys_run fs_queue d_do_output mg_do_input c2m_sys0 evs) <= length rs)%nat ->
  let st := sys_run fs_queue d_do_output mg_do_input c2m_sys0 (evs ++ concat rs) in
  quiet d_rem st /\ s_dlv st = ev_msgs evs.
Proof. exact (link_fair_completion (d_sender mg_wfm) mg_decoder). Qed.
Print Assumptions C03_cpp_to_mini_fair_completion.


(* ====================================================================== the send pump.  Event loops call DoOutput() only while
   the gateway's HasBytesToOutput() says true.  *_has_bytes_sound: for EVERY sender state, HasBytesToOutput() = false
   implies that no queued byte is left unsent (in particular in the state the text gateway's 1024-deep recursion cap
   leaves behind, see C03_text_recursion_cap_state).  *_pump_completeness: at the states where such a pump stops
   (sender says no, nothing in flight) delivered = queued. *)
Theorem C03_binary_codec_has_bytes_sound : forall (Msg CS : Type) (flat : CS -> Msg -> CS * bytes) (st : fsend Msg CS),
  fs_has_bytes st = false -> fs_rem Msg CS flat st = [].
Proof. exact fs_has_bytes_rem. Qed.
Print Assumptions C03_binary_codec_has_bytes_sound.

Theorem C03_text_has_bytes_sound : forall (eol : bytes) (st : tsend), ts_has_bytes st = false -> ts_rem eol st = [].
Proof. exact ts_has_bytes_rem. Qed.
Print Assumptions C03_text_has_bytes_sound.

Theorem C03_raw_slip_has_bytes_sound : forall (xform : list bytes -> list bytes) (st : rsend),
  rs_has_bytes st = false -> rs_rem xform st = [].
Proof. exact rs_has_bytes_rem. Qed.
Print Assumptions C03_raw_slip_has_bytes_sound.

Theorem C03_websocket_has_bytes_sound : forall (Msg : Type) (sflat : Msg -> bytes) (client : bool) (st : wsend Msg),
  ws_has_bytes st = false -> ws_rem Msg sflat client st = [].
Proof. exact ws_has_bytes_rem. Qed.
Print Assumptions C03_websocket_has_bytes_sound.

Theorem C03_mini_has_bytes_sound : forall st : msend, mg_has_bytes st = false -> ms_rem st = [].
Proof. exact mg_has_bytes_rem. Qed.
Print Assumptions C03_mini_has_bytes_sound.

Theorem C03_binary_pump_completeness : forall max_in (evs : list (event bytes)),
  Forall (ev_wf (d_wfb max_in)) evs ->
  fs_has_bytes (s_snd (sys_run fs_queue d_do_output (d_do_input max_in) d_sys0 evs)) = false ->
  s_pipe (sys_run fs_queue d_do_output (d_do_input max_in) d_sys0 evs) = [] ->
  s_dlv (sys_run fs_queue d_do_output (d_do_input max_in) d_sys0 evs) = ev_msgs evs.
Proof. exact (fun max_in evs Hf Hh => d_completeness max_in evs Hf (fs_has_bytes_rem _ _ _ _ Hh)). Qed.
Print Assumptions C03_binary_pump_completeness.

Theorem C03_text_pump_completeness : forall eol, eol_ok eol -> forall evs : list (event (list bytes)),
  Forall (ev_wf text_wfm) evs ->
  ts_has_bytes (s_snd (sys_run ts_queue (t_do_output eol) t_do_input text_sys0 evs)) = false ->
  s_pipe (sys_run ts_queue (t_do_output eol) t_do_input text_sys0 evs) = [] ->
  concat (s_dlv (sys_run ts_queue (t_do_output eol) t_do_input text_sys0 evs)) = concat (ev_msgs evs).
Proof. exact (fun eol He evs Hf Hh => link_completeness (text_sender eol He) (text_decoder eol He) evs Hf (ts_has_bytes_rem _ _ Hh)). Qed.
Print Assumptions C03_text_pump_completeness.

Theorem C03_raw_pump_completeness : forall minc maxc (evs : list (event (list bytes))),
  Forall (ev_wf raw_wfm) evs ->
  rs_has_bytes (s_snd (sys_run rs_queue raw_do_output (r_do_input minc maxc) raw_sys0 evs)) = false ->
  s_pipe (sys_run rs_queue raw_do_output (r_do_input minc maxc) raw_sys0 evs) = [] ->
  flat_chunks (s_dlv (sys_run rs_queue raw_do_output (r_do_input minc maxc) raw_sys0 evs))
    ++ rr_pend (s_rcv (sys_run rs_queue raw_do_output (r_do_input minc maxc) raw_sys0 evs)) = flat_chunks (ev_msgs evs).
Proof.
  exact (fun minc maxc evs Hf Hh => completeness rs_queue raw_do_output (r_do_input minc maxc) rs_init rr_init raw_wfm (rs_qbytes r_trunc)
  flat_chunks flat_chunks rr_pend (rs_rem r_trunc) (fun s _ => rs_wf s) (raw_RRel minc)
  (sl_wire_nil raw_sender) (sl_init raw_sender) (sl_queue raw_sender) (sl_out raw_sender)
  (raw_R_init minc) (raw_R_in minc maxc) (raw_decode_complete minc)
  evs Hf (rs_has_bytes_rem _ _ Hh)).
Qed.
Print Assumptions C03_raw_pump_completeness.

Theorem C03_slip_pump_completeness : forall evs : list (event (list bytes)),
  Forall (ev_wf raw_wfm) evs ->
  rs_has_bytes (s_snd (sys_run rs_queue slip_do_output sl_do_input slip_sys0 evs)) = false ->
  s_pipe (sys_run rs_queue slip_do_output sl_do_input slip_sys0 evs) = [] ->
  concat (s_dlv (sys_run rs_queue slip_do_output sl_do_input slip_sys0 evs)) = concat (ev_msgs evs).
Proof. exact (fun evs Hf Hh => link_completeness slip_sender slip_decoder evs Hf (rs_has_bytes_rem _ _ Hh)). Qed.
Print Assumptions C03_slip_pump_completeness.

Theorem C03_websocket_pump_completeness : forall (client : bool) (max_in : N) (keys0 : list bytes),
  Forall (fun k => length k = 4%nat) keys0 ->
  forall evs : list (event bytes),
  Forall (ev_wf (wsd_wfm max_in)) evs ->
  ws_has_bytes (s_snd (sys_run ws_queue (ws_do_output bytes wsd_sflat client)
                      (wr_do_input bytes (frecv unit) (wsd_sfeed max_in) (negb client)) (wsd_sys0 keys0) evs)) = false ->
  s_pipe (sys_run ws_queue (ws_do_output bytes wsd_sflat client)
                      (wr_do_input bytes (frecv unit) (wsd_sfeed max_in) (negb client)) (wsd_sys0 keys0) evs) = [] ->
  s_dlv (sys_run ws_queue (ws_do_output bytes wsd_sflat client)
                      (wr_do_input bytes (frecv unit) (wsd_sfeed max_in) (negb client)) (wsd_sys0 keys0) evs) = ev_msgs evs.
Proof.
  exact (fun client max_in keys0 Hk evs Hf Hh =>
  link_completeness (wsd_sender client max_in keys0) (wsd_decoder client max_in keys0 Hk) evs Hf (ws_has_bytes_rem _ _ _ _ Hh)).
Qed.
Print Assumptions C03_websocket_pump_completeness.

Theorem C03_mini_to_cpp_pump_completeness : forall max_in (evs : list (event bytes)),
  Forall (ev_wf (d_wfb max_in)) evs ->
  mg_has_bytes (s_snd (sys_run ms_queue mg_do_output (d_do_input max_in) m2c_sys0 evs)) = false ->
  s_pipe (sys_run ms_queue mg_do_output (d_do_input max_in) m2c_sys0 evs) = [] ->
  s_dlv (sys_run ms_queue mg_do_output (d_do_input max_in) m2c_sys0 evs) = ev_msgs evs.
Proof. exact (fun max_in evs Hf Hh => link_completeness (ms_sender _) (d_decoder max_in) evs Hf (mg_has_bytes_rem _ Hh)). Qed.
Print Assumptions C03_mini_to_cpp_pump_completeness.

Theorem C03_cpp_to_mini_pump_completeness : forall evs : list (event bytes),
  Forall (ev_wf mg_wfm) evs ->
  fs_has_bytes (s_snd (sys_run fs_queue d_do_output mg_do_input c2m_sys0 evs)) = false ->
  s_pipe (sys_run fs_queue d_do_output mg_do_input c2m_sys0 evs) = [] ->
  s_dlv (sys_run fs_queue d_do_output mg_do_input c2m_sys0 evs) = ev_msgs evs.
Proof. exact (fun evs Hf Hh => link_completeness (d_sender mg_wfm) mg_decoder evs Hf (fs_has_bytes_rem _ _ _ _ Hh)). Qed.
Print Assumptions C03_cpp_to_mini_pump_completeness.

(* non-vacuity of the text case: cap+1 empty lines, one unlimited DoOutput() call: it stops after cap lines with the
   current line fully written; HasBytesToOutput() still says true and one byte is unsent *)
Theorem C03_text_recursion_cap_state :
  let m := repeat ([] : bytes) (S (N.to_nat c_text_max_recurse)) in
  let '(st, w) := t_do_output [LF] (ts_queue ts_init m) c_MUSCLE_NO_LIMIT (repeat c_MUSCLE_NO_LIMIT 2000) in
  blen w = c_text_max_recurse /\ ts_off st = Z.of_N (blen (ts_text st)) /\ ts_has_bytes st = true /\ ts_rem [LF] st <> [].
Proof. exact text_cap_state_has_bytes. Qed.
Print Assumptions C03_text_recursion_cap_state.

(* ====================================================================== non-vacuity: concrete runs
   that satisfy the premises above (segmented transfers reaching the quiet state) *)
Definition ex_big : N := c_MUSCLE_NO_LIMIT.
Definition ex_m1 : bytes := le32 c_CURRENT_PROTOCOL_VERSION ++ le32 7 ++ le32 0.
Definition ex_m2 : bytes := le32 c_CURRENT_PROTOCOL_VERSION ++ le32 9 ++ le32 0.
Definition ex_bin_evs : list (event bytes) :=
  [EQueue ex_m1; EOut 5 [3; 1; 1]; EIn ex_big [2]; EQueue ex_m2; EOut ex_big [ex_big; ex_big; ex_big];
   EIn 7 [1; 1; 9]; EIn ex_big [0]; EIn ex_big [ex_big; ex_big; ex_big; ex_big; ex_big]].

Example C03_binary_nonvacuous :
  Forall (ev_wf (d_wfb ex_big)) ex_bin_evs /\
  d_rem (s_snd (sys_run fs_queue d_do_output (d_do_input ex_big) d_sys0 ex_bin_evs)) = [] /\
  s_pipe (sys_run fs_queue d_do_output (d_do_input ex_big) d_sys0 ex_bin_evs) = [] /\
  s_dlv (sys_run fs_queue d_do_output (d_do_input ex_big) d_sys0 ex_bin_evs) = [ex_m1; ex_m2].
Proof.
  split.
  - repeat constructor; vm_compute; try discriminate; reflexivity.
  - vm_compute. auto.
Qed.

Definition ex_lines : list (event (list bytes)) :=
  [EQueue [[97; 98]; []; [99]]; EOut 3 [2; 1]; EIn ex_big [1]; EQueue []; EQueue [[100]];
   EOut ex_big [ex_big; ex_big; ex_big; ex_big; ex_big; ex_big; ex_big; ex_big];
   EIn ex_big [2]; EIn 1 [1]; EIn ex_big [ex_big]].

Example C03_text_nonvacuous :
  eol_ok [CR; LF] /\ Forall (ev_wf text_wfm) ex_lines /\
  ts_rem [CR; LF] (s_snd (sys_run ts_queue (t_do_output [CR; LF]) t_do_input text_sys0 ex_lines)) = [] /\
  s_pipe (sys_run ts_queue (t_do_output [CR; LF]) t_do_input text_sys0 ex_lines) = [] /\
  concat (s_dlv (sys_run ts_queue (t_do_output [CR; LF]) t_do_input text_sys0 ex_lines)) = [[97; 98]; []; [99]; [100]].
Proof.
  split; [left; reflexivity|]. split.
  - repeat constructor; discriminate.
  - vm_compute. auto.
Qed.

Definition ex_chunks : list (event (list bytes)) :=
  [EQueue [[192; 219; 65]; [219]]; EOut 4 [3; 1]; EIn ex_big [2]; EQueue [[66]];
   EOut ex_big [ex_big; ex_big; ex_big; ex_big]; EIn 3 [3]; EIn ex_big [ex_big]; EIn ex_big [ex_big]].

Example C03_slip_nonvacuous :
  Forall (ev_wf raw_wfm) ex_chunks /\
  rs_rem slip_xform (s_snd (sys_run rs_queue slip_do_output sl_do_input slip_sys0 ex_chunks)) = [] /\
  s_pipe (sys_run rs_queue slip_do_output sl_do_input slip_sys0 ex_chunks) = [] /\
  concat (s_dlv (sys_run rs_queue slip_do_output sl_do_input slip_sys0 ex_chunks)) = [[192; 219; 65]; [219]; [66]].
Proof.
  split.
  - repeat constructor; discriminate.
  - vm_compute. auto.
Qed.

Example C03_raw_nonvacuous :
  Forall (ev_wf raw_wfm) ex_chunks /\
  rs_rem r_trunc (s_snd (sys_run rs_queue raw_do_output (r_do_input 2 ex_big) raw_sys0 ex_chunks)) = [] /\
  s_pipe (sys_run rs_queue raw_do_output (r_do_input 2 ex_big) raw_sys0 ex_chunks) = [] /\
  flat_chunks (s_dlv (sys_run rs_queue raw_do_output (r_do_input 2 ex_big) raw_sys0 ex_chunks)) = [192; 219; 65; 219] /\
  rr_pend (s_rcv (sys_run rs_queue raw_do_output (r_do_input 2 ex_big) raw_sys0 ex_chunks)) = [66].
Proof.
  split.
  - repeat constructor; discriminate.
  - vm_compute. auto.
Qed.

(* a round in the sense of the fair-completion theorems *)
Example C03_round_nonvacuous : @round bytes [EIn 0 []; EOut 1 [1]; EOut 0 [5]; EIn ex_big [1]].
Proof.
  split; [repeat constructor|]. split.
  - apply Exists_cons_tl. apply Exists_cons_hd. cbn. split; discriminate.
  - do 3 apply Exists_cons_tl. apply Exists_cons_hd. cbn. split; discriminate.
Qed.

(* the zlib premise is satisfiable (a trivial "stored" codec: deflate = identity), and a run under it
   that mixes a compressed Message (>= 32 bytes with header) with one that stays uncompressed *)
Definition ex_deflate (ds : unit) (_ : bool) (b : bytes) : unit * bytes := (ds, b).
Definition ex_inflate (is : unit) (_ : bool) (d : bytes) (n : N) : unit * option bytes :=
  (is, if blen d =? n then Some d else None).
Definition ex_m3 : bytes := ex_m1 ++ le32 1 ++ le32 2 ++ le32 3 ++ le32 4.
Definition ex_z_evs : list (event bytes) :=
  [EQueue ex_m3; EQueue ex_m1; EQueue ex_m3; EOut ex_big [7; 30]; EIn ex_big [5; 1]; EOut ex_big [ex_big; ex_big; ex_big];
   EIn ex_big [ex_big; ex_big; ex_big; ex_big; ex_big; ex_big; ex_big]].

Example C03_zlib_nonvacuous :
  (forall ds is b, True -> b <> [] ->
     exists is', ex_inflate is false (snd (ex_deflate ds false b)) (blen b) = (is', Some b) /\ True) /\
  Forall (ev_wf (z_wfb unit ex_deflate false ex_big)) ex_z_evs /\
  let st := sys_run fs_queue (z_do_output unit (fun _ => tt) ex_deflate c_MUSCLE_MESSAGE_ENCODING_ZLIB_9 false)
              (z_do_input unit tt ex_inflate ex_big) (z_sys0 unit unit) ex_z_evs in
  z_rem unit (fun _ => tt) ex_deflate c_MUSCLE_MESSAGE_ENCODING_ZLIB_9 false (s_snd st) = [] /\
  s_pipe st = [] /\ s_dlv st = [ex_m3; ex_m1; ex_m3].
Proof.
  split.
  - intros ds is b _ _. exists is. unfold ex_inflate, ex_deflate. cbn [snd]. rewrite N.eqb_refl. auto.
  - split.
    + repeat constructor; unfold z_wfb, ex_deflate; cbn [snd]; vm_compute; repeat split; try discriminate; reflexivity.
    + vm_compute. auto.
Qed.

(* the templating premises are satisfiable (toy Message type of TmplProofs.Toy), and a run under
   them in which the same template is created once and then used payload-only, mixed with a
   what-only Message and a second template *)
Definition ex_t_evs : list (event Toy.MSG) :=
  [EQueue (5, [1; 2]); EQueue (6, []); EQueue (7, [3; 4]); EOut ex_big [9; 20]; EIn ex_big [3; 1];
   EQueue (8, [5]); EQueue (9, [6; 7]);
   EOut ex_big [ex_big; ex_big; ex_big; ex_big; ex_big];
   EIn ex_big [ex_big; ex_big; ex_big; ex_big; ex_big; ex_big; ex_big; ex_big; ex_big; ex_big; ex_big; ex_big]].

Example C03_templating_nonvacuous :
  (forall m, Toy.wfm m -> Toy.m_trivial m = true -> m = Toy.m_of_what (Toy.m_what m) /\ Toy.m_what m < two32) /\
  (forall m, Toy.wfm m -> Toy.m_trivial m = false -> Toy.m_unflat (Toy.m_flat m) = Some m /\ blen (Toy.m_flat m) <> 4) /\
  (forall m t, Toy.wfm m -> Toy.m_trivial m = false -> Toy.t_describes t m = true -> Toy.m_tunflat t (Toy.m_tflat t m) = Some m) /\
  (forall m, Toy.wfm m -> Toy.t_tid (Toy.m_tmpl m) = Toy.m_tid m /\ Toy.m_tid m < two64) /\
  (forall m t, Toy.wfm m -> blen (Toy.m_flat m) < flag_bit /\ blen (Toy.m_flat m) <= ex_big /\
                            8 + blen (Toy.m_tflat t m) < flag_bit /\ 8 + blen (Toy.m_tflat t m) <= ex_big) /\
  Forall (ev_wf Toy.wfm) ex_t_evs /\
  let st := sys_run fs_queue (tm_do_output Toy.MSG Toy.TPL Toy.m_trivial Toy.m_what Toy.m_of_what Toy.m_tid Toy.m_tmpl Toy.t_size Toy.m_flat Toy.m_tflat Toy.t_describes 30)
              (tm_do_input Toy.MSG Toy.TPL Toy.m_of_what Toy.m_tmpl Toy.t_tid Toy.t_size Toy.m_unflat Toy.m_tunflat 30 ex_big)
              (tm_sys0 Toy.MSG Toy.TPL) ex_t_evs in
  s_pipe st = [] /\ s_dlv st = [(5, [1; 2]); (6, []); (7, [3; 4]); (8, [5]); (9, [6; 7])] /\
  fs_cs (s_snd st) = fr_cr (s_rcv st) /\ fst (fs_cs (s_snd st)) = [(3, 2%nat); (2, 1%nat)].
Proof.
  split; [exact Toy.H_trivial|]. split; [exact Toy.H_full|]. split; [exact Toy.H_templated|].
  split; [exact Toy.H_tid|]. split; [exact Toy.H_size|]. split.
  - repeat constructor; vm_compute; reflexivity.
  - vm_compute. auto.
Qed.

(* a client -> server WebSocket run: two Messages, masked with two different keys, segmented reads *)
Definition ex_ws_evs : list (event bytes) :=
  [EQueue ex_m1; EQueue ex_m2; EOut 5 [3; 2]; EIn ex_big [1; 1; 1]; EOut ex_big [ex_big; ex_big; ex_big; ex_big];
   EIn 9 [4; 5]; EIn ex_big [ex_big; ex_big; ex_big; ex_big; ex_big; ex_big; ex_big; ex_big; ex_big; ex_big]].

Example C03_websocket_nonvacuous :
  Forall (fun k => length k = 4%nat) [[1; 2; 3; 4]; [200; 0; 255; 7]] /\
  Forall (ev_wf (wsd_wfm ex_big)) ex_ws_evs /\
  let st := sys_run ws_queue (ws_do_output bytes wsd_sflat true)
              (wr_do_input bytes (frecv unit) (wsd_sfeed ex_big) false) (wsd_sys0 [[1; 2; 3; 4]; [200; 0; 255; 7]]) ex_ws_evs in
  wsd_rem true (s_snd st) = [] /\ s_pipe st = [] /\ s_dlv st = [ex_m1; ex_m2].
Proof.
  split; [repeat constructor|]. split.
  - repeat constructor; vm_compute; try discriminate; reflexivity.
  - vm_compute. auto.
Qed.

(* lines with mixed terminators, read in pieces that split a CRLF: "ab" CR, "" CRLF, "c" LF, "" CR, "d" CRLF *)
Example C03_text_mixed_nonvacuous :
  let lts := [([97; 98], [CR]); ([], [CR; LF]); ([99], [LF]); ([], [CR]); ([100], [CR; LF])] in
  mixed_ok false lts /\
  let '(st', outs, pipe') := t_recv_run tr_init (mixed_wire lts) [(4, [ex_big]); (ex_big, [1]); (0, [5]); (ex_big, [3]); (ex_big, [ex_big])] in
  pipe' = [] /\ concat outs = [[97; 98]; []; [99]; []; [100]].
Proof.
  split.
  - cbn. repeat split; try (repeat constructor; discriminate); try (left; reflexivity); try (right; left; reflexivity);
      try (right; right; reflexivity); intros (H1 & H2 & H3); discriminate.
  - vm_compute. auto.
Qed.

(* mini sender -> C++ receiver and C++ sender -> mini receiver: two Messages, short writes and reads; the mini
   receiver needs one call per Message *)
Example C03_mini_nonvacuous :
  Forall (ev_wf (d_wfb ex_big)) ex_bin_evs /\ Forall (ev_wf mg_wfm) ex_bin_evs /\
  (let st := sys_run ms_queue mg_do_output (d_do_input ex_big) m2c_sys0 ex_bin_evs in
   ms_rem (s_snd st) = [] /\ s_pipe st = [] /\ s_dlv st = [ex_m1; ex_m2]) /\
  (let st := sys_run fs_queue d_do_output mg_do_input c2m_sys0 (ex_bin_evs ++ [EIn ex_big [ex_big; ex_big]]) in
   d_rem (s_snd st) = [] /\ s_pipe st = [] /\ s_dlv st = [ex_m1; ex_m2]).
Proof.
  split; [|split; [|split]].
  - repeat constructor; vm_compute; try discriminate; reflexivity.
  - repeat constructor; vm_compute; try discriminate; reflexivity.
  - vm_compute. auto.
  - vm_compute. auto.
Qed.
