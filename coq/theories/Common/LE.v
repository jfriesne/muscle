(* Common/LE.v -- bytes and little-endian 32-bit words, used by the C12 files (Gw/Tunnel, MiniTunnel, Packetized).

   A byte is Coq.Init.Byte.byte (256 constructors, so range facts are free).  muscle's
   DefaultEndianConverter is little-endian: a uint32 is written lowest byte first.
   [le32 n] writes n mod 2^32 (the truncation a C++ uint32 assignment performs);
   [rd32 l] reads one word from the front of l and returns the rest.

   This file carries its own (short) proofs. *)
From Coq Require Import List Arith NArith Lia.
From Coq Require Import Strings.Byte.
Import ListNotations.
Local Open Scope N_scope.

Definition two32 : N := 4294967296.
Definition u32 (n : N) : N := n mod two32.

Definition byte_of_N (n : N) : byte :=
  match Byte.of_N (n mod 256) with Some b => b | None => x00 end.

Definition le32 (n : N) : list byte :=
  [byte_of_N n; byte_of_N (n / 256); byte_of_N (n / 256 / 256); byte_of_N (n / 256 / 256 / 256)].

Definition word4 (a0 a1 a2 a3 : N) : N := a0 + 256 * (a1 + 256 * (a2 + 256 * a3)).

Definition rd32 (l : list byte) : option (N * list byte) :=
  match l with
  | b0 :: b1 :: b2 :: b3 :: r =>
      Some (word4 (Byte.to_N b0) (Byte.to_N b1) (Byte.to_N b2) (Byte.to_N b3), r)
  | _ => None
  end.

(* lengths and slices measured in N, as the C++ measures them in uint32 *)
Definition lenN {A} (l : list A) : N := N.of_nat (length l).
Definition takeN {A} (n : N) (l : list A) : list A := firstn (N.to_nat n) l.
Definition dropN {A} (n : N) (l : list A) : list A := skipn (N.to_nat n) l.

(* ------------------------------------------------------------------ facts *)

Lemma to_N_byte_of_N n : Byte.to_N (byte_of_N n) = n mod 256.
Proof.
  unfold byte_of_N.
  destruct (Byte.of_N (n mod 256)) eqn:E.
  - now apply Byte.to_of_N.
  - apply Byte.of_N_None_iff in E.
    pose proof (N.mod_upper_bound n 256 ltac:(discriminate)). lia.
Qed.

Lemma byte_of_N_to_N b : byte_of_N (Byte.to_N b) = b.
Proof.
  unfold byte_of_N. pose proof (Byte.to_N_bounded b) as Hb.
  rewrite N.mod_small by lia. now rewrite Byte.of_to_N.
Qed.

Lemma length_le32 n : length (le32 n) = 4%nat.
Proof. reflexivity. Qed.

Lemma lenN_le32 n : lenN (le32 n) = 4.
Proof. reflexivity. Qed.

Lemma u32_lt n : u32 n < two32.
Proof. unfold u32. apply N.mod_upper_bound. discriminate. Qed.

Lemma u32_small n : n < two32 -> u32 n = n.
Proof. unfold u32. intros. now apply N.mod_small. Qed.

Lemma le_word_decompose n :
  n mod 256 + 256 * ((n / 256) mod 256 + 256 * ((n / 256 / 256) mod 256 + 256 * ((n / 256 / 256 / 256) mod 256)))
  = n mod two32.
Proof.
  unfold two32. change 4294967296 with (256 * (256 * (256 * 256))).
  now rewrite !N.mod_mul_r by discriminate.
Qed.

Lemma rd32_le32 n r : rd32 (le32 n ++ r) = Some (u32 n, r).
Proof.
  unfold le32, rd32. cbn [app]. rewrite !to_N_byte_of_N. unfold word4.
  now rewrite le_word_decompose.
Qed.

Lemma split256 a r : a < 256 -> (a + 256 * r) mod 256 = a /\ (a + 256 * r) / 256 = r.
Proof.
  intros H. rewrite (N.mul_comm 256), N.mod_add, N.div_add, N.mod_small, N.div_small by (assumption || discriminate).
  auto.
Qed.

Lemma rd32_Some l n r : rd32 l = Some (n, r) -> n < two32 /\ l = le32 n ++ r.
Proof.
  destruct l as [|b0 [|b1 [|b2 [|b3 r']]]]; cbn [rd32]; try discriminate.
  intros E. injection E as <- <-. unfold word4.
  pose proof (Byte.to_N_bounded b0) as H0. pose proof (Byte.to_N_bounded b1) as H1.
  pose proof (Byte.to_N_bounded b2) as H2. pose proof (Byte.to_N_bounded b3) as H3.
  split; [unfold two32; lia|]. unfold le32.
  destruct (split256 (Byte.to_N b0) (Byte.to_N b1 + 256 * (Byte.to_N b2 + 256 * Byte.to_N b3)) ltac:(lia)) as [M0 ->].
  destruct (split256 (Byte.to_N b1) (Byte.to_N b2 + 256 * Byte.to_N b3) ltac:(lia)) as [M1 ->].
  destruct (split256 (Byte.to_N b2) (Byte.to_N b3) ltac:(lia)) as [M2 ->].
  unfold byte_of_N at 1 2 3. rewrite M0, M1, M2, !Byte.of_to_N, byte_of_N_to_N. reflexivity.
Qed.

Lemma rd32_None l : rd32 l = None <-> (length l < 4)%nat.
Proof.
  destruct l as [|b0 [|b1 [|b2 [|b3 r']]]]; cbn [rd32 length]; split; intros H; try discriminate; try lia; reflexivity.
Qed.

(* slices *)
Lemma lenN_app {A} (a b : list A) : lenN (a ++ b) = lenN a + lenN b.
Proof. unfold lenN. rewrite app_length. lia. Qed.

Lemma lenN_nil {A} : lenN (@nil A) = 0.
Proof. reflexivity. Qed.

Lemma lenN_cons {A} (x : A) l : lenN (x :: l) = 1 + lenN l.
Proof. unfold lenN. cbn [length]. lia. Qed.

Lemma lenN_takeN {A} n (l : list A) : lenN (takeN n l) = N.min n (lenN l).
Proof. unfold lenN, takeN. rewrite firstn_length. lia. Qed.

Lemma lenN_dropN {A} n (l : list A) : lenN (dropN n l) = lenN l - n.
Proof. unfold lenN, dropN. rewrite skipn_length. lia. Qed.

Lemma takeN_dropN {A} n (l : list A) : takeN n l ++ dropN n l = l.
Proof. apply firstn_skipn. Qed.

Lemma takeN_app_exact {A} (a b : list A) : takeN (lenN a) (a ++ b) = a.
Proof.
  unfold takeN, lenN. rewrite Nat2N.id.
  rewrite firstn_app, Nat.sub_diag, firstn_all. cbn. now rewrite app_nil_r.
Qed.

Lemma dropN_app_exact {A} (a b : list A) : dropN (lenN a) (a ++ b) = b.
Proof.
  unfold dropN, lenN. rewrite Nat2N.id.
  rewrite skipn_app, Nat.sub_diag, skipn_all. reflexivity.
Qed.

Lemma takeN_app_le {A} n (a b : list A) : n <= lenN a -> takeN n (a ++ b) = takeN n a.
Proof.
  unfold takeN, lenN. intros H. rewrite firstn_app.
  replace (N.to_nat n - length a)%nat with 0%nat by lia. cbn. apply app_nil_r.
Qed.

Lemma takeN_all {A} n (l : list A) : lenN l <= n -> takeN n l = l.
Proof. unfold takeN, lenN. intros. apply firstn_all2. lia. Qed.

Lemma takeN_0 {A} (l : list A) : takeN 0 l = [].
Proof. reflexivity. Qed.

Lemma dropN_0 {A} (l : list A) : dropN 0 l = l.
Proof. reflexivity. Qed.

Lemma lenN_0_nil {A} (l : list A) : lenN l = 0 -> l = [].
Proof. destruct l; [reflexivity|]. unfold lenN. cbn [length]. lia. Qed.
