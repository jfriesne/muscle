(* C15 -- property theorems only: each is closed by [exact] of a lemma proved elsewhere.
   [engine] stands for libc regcomp(REG_EXTENDED)+regexec; the premise
     forall re, ere_compile re <> CUnsupported -> engine re = ere_engine re
   says it behaves as the model Pat/Ere.v on the regex strings inside that model (checked against the real
   libc by the correspondence run).  [st0] is the arbitrary prior state of the (re-used / recycled) object. *)
From Coq Require Import List NArith Bool.
From Muscle Require Import Gen.Consts Pat.Ere Pat.EreProofs Pat.Translate Pat.Simple Pat.RangeProofs Pat.UvProofs Pat.SimpleParse Pat.SimpleParseComplete Pat.RangeParse Pat.PatSpec Pat.PatProofs.
Import ListNotations.
Local Open Scope N_scope.

(* SetPattern fully overwrites the matcher: state and status do not depend on the prior state. *)
Theorem C15_set_pattern_overwrites :
  forall engine st1 st2 p simple,
    obs (fst (set_pattern engine st1 p simple)) = obs (fst (set_pattern engine st2 p simple)) /\
    snd (set_pattern engine st1 p simple) = snd (set_pattern engine st2 p simple).
Proof. exact set_pattern_overwrites. Qed.
Print Assumptions C15_set_pattern_overwrites.

(* After SetPattern the REGEXVALID flag is set iff a regex was compiled for THIS pattern, and then the
   compiled regex is that pattern's. *)
Theorem C15_valid_iff_compiled :
  forall engine st0 p simple,
    let st := fst (set_pattern engine st0 p simple) in
    (s_valid st, if s_valid st then s_regexp st else None) =
    match regex_string p simple with
    | Some re => match engine re with RxOk m => (true, Some m) | RxErr => (false, None) end
    | None => (false, None)
    end.
Proof. exact valid_iff_compiled. Qed.
Print Assumptions C15_valid_iff_compiled.

(* The regex model computes the denotational meaning of POSIX EREs with anchors: regexec finds a match
   iff some infix of the subject is denoted by the expression in its context. *)
Theorem C15_ere_exec_spec :
  forall r s, ere_exec r s = true <->
    exists pre mid post, s = pre ++ mid ++ post /\ cden r (isnil pre) mid (isnil post).
Proof. exact ere_exec_spec. Qed.
Print Assumptions C15_ere_exec_spec.

(* MAIN: a pattern of the documented wildcard grammar (ordinary characters, backslash-escapes, ? , * ,
   [..] classes, ( | ) groups, comma and bar alternatives at any depth, optional leading ~) matches a
   string if and only if the documented meaning of the pattern says so -- for every pattern, every
   subject, every prior state of the matcher.
   (partial only in the character classes: their members must avoid , . + * ? \ and the bracket syntax
    characters, see C15_class_meta_refuted; the full statement has [wf] without that restriction.) *)
Theorem C15_translate_correct_partial :
  forall engine, (forall re, ere_compile re <> CUnsupported -> engine re = ere_engine re) ->
  forall neg al st0 s,
    wf_pattern al = true ->
    (matches (fst (set_pattern engine st0 (print_pattern neg al) true)) s = true <-> den_pattern neg al s).
Proof. exact translate_correct. Qed.
Print Assumptions C15_translate_correct_partial.

(* The same, read over pattern STRINGS: [sparse] is an executable reader of the documented grammar; every
   string it accepts (and its negation ~p) matches exactly what the tree it returns denotes. *)
Theorem C15_translate_correct_str_partial :
  forall engine, (forall re, ere_compile re <> CUnsupported -> engine re = ere_engine re) ->
  forall p al st0 s,
    sparse p = Some al ->
    (matches (fst (set_pattern engine st0 p true)) s = true <-> den_alt al s) /\
    (matches (fst (set_pattern engine st0 (ch_tilde :: p) true)) s = true <-> ~ den_alt al s).
Proof. exact translate_correct_str. Qed.
Print Assumptions C15_translate_correct_str_partial.

(* The reader accepts exactly the concrete syntax of the well-formed trees (so the string-level statement is as
   general as the tree-level one, and the concrete syntax is unambiguous). *)
Theorem C15_sparse_exact :
  forall p al, sparse p = Some al <-> (p = print_alt al /\ wf_pattern al = true).
Proof. exact sparse_exact. Qed.
Print Assumptions C15_sparse_exact.

(* Escaping a string with EscapeRegexTokens yields a pattern that matches that string and no other. *)
Theorem C15_escape_exact :
  forall engine, (forall re, ere_compile re <> CUnsupported -> engine re = ere_engine re) ->
  forall s st0 t, matches (fst (set_pattern engine st0 (escape s) true)) t = true <-> t = s.
Proof. exact escape_exact. Qed.
Print Assumptions C15_escape_exact.

(* A pattern reported unique matches exactly RemoveEscapeChars(pattern) (the law the hash-lookup path of
   the tree traversal needs). *)
Theorem C15_unique_exact :
  forall engine, (forall re, ere_compile re <> CUnsupported -> engine re = ere_engine re) ->
  forall p st0 t,
    is_unique (fst (set_pattern engine st0 p true)) = true ->
    (matches (fst (set_pattern engine st0 p true)) t = true <-> t = unescape p).
Proof. exact unique_exact. Qed.
Print Assumptions C15_unique_exact.

(* The "can match more than one string" test answers yes whenever two different strings match. *)
Theorem C15_multi_complete :
  forall engine, (forall re, ere_compile re <> CUnsupported -> engine re = ere_engine re) ->
  forall p st0 t1 t2,
    matches (fst (set_pattern engine st0 p true)) t1 = true ->
    matches (fst (set_pattern engine st0 p true)) t2 = true ->
    t1 <> t2 ->
    is_unique (fst (set_pattern engine st0 p true)) = false.
Proof. exact multi_complete. Qed.
Print Assumptions C15_multi_complete.

(* The escape of a string is reported unique (so the traversal's hash-lookup path is taken for it). *)
Theorem C15_escape_unique :
  forall engine s st0, is_unique (fst (set_pattern engine st0 (escape s) true)) = true.
Proof. exact escape_unique. Qed.
Print Assumptions C15_escape_unique.

(* RANGE LISTS.  Full statement: for every documented list "<clause,..>" (optionally negated) and EVERY
   subject s:  Match s = true <-> s is a decimal numeral of an integer inside one of the ranges.
   Proved part: every such list, every subject that is a decimal numeral (leading zeros allowed) of a value
   below 2^32.  The full statement fails on subjects with trailing junk (F25) and values >= 2^32 (F26):
   C15_range_junk_refuted, C15_range_wrap_refuted. *)
Theorem C15_range_doc_partial :
  forall engine neg cs st0 k v,
    cs <> [] -> forallb clause_ok cs = true -> v <= u32_max ->
    matches (fst (set_pattern engine st0 (print_range_pattern neg cs) true)) (repeat 48 k ++ print_num v) =
    xorb neg (existsb (fun c => clause_has c v) cs).
Proof. exact range_doc. Qed.
Print Assumptions C15_range_doc_partial.

(* The same over pattern STRINGS: [read_ranges] is an executable reader of the documented range-list form. *)
Theorem C15_range_doc_str_partial :
  forall engine p neg cs st0 k v,
    read_ranges p = Some (neg, cs) -> v <= u32_max ->
    matches (fst (set_pattern engine st0 p true)) (repeat 48 k ++ print_num v) =
    xorb neg (existsb (fun c => clause_has c v) cs).
Proof. exact range_doc_str. Qed.
Print Assumptions C15_range_doc_str_partial.

(* the witnesses replayed on the real code as findings F24, F25, F26 *)
Theorem C15_class_meta_refuted :
  exists neg items c,
    class_has neg items c = true /\
    matches (fst (set_pattern ere_engine sm_init (print_pattern false (SLast (SCons (SClass neg items) SNil))) true)) [c] = false.
Proof. exact class_meta_refuted. Qed.
Print Assumptions C15_class_meta_refuted.

Theorem C15_range_junk_refuted :
  exists cs s, ~ den_ranges cs s /\
    matches (fst (set_pattern ere_engine sm_init (print_range_pattern false cs) true)) s = true.
Proof. exact range_junk_refuted. Qed.
Print Assumptions C15_range_junk_refuted.

Theorem C15_range_wrap_refuted :
  exists cs s, ~ den_ranges cs s /\
    matches (fst (set_pattern ere_engine sm_init (print_range_pattern false cs) true)) s = true.
Proof. exact range_wrap_refuted. Qed.
Print Assumptions C15_range_wrap_refuted.

(* A pattern reported "list of unique values" matches exactly its comma-separated values. *)
Theorem C15_uvlist_exact :
  forall engine, (forall re, ere_compile re <> CUnsupported -> engine re = ere_engine re) ->
  forall p st0 t,
    is_uvlist (fst (set_pattern engine st0 p true)) = true ->
    (matches (fst (set_pattern engine st0 p true)) t = true <-> In t (uv_segs p false [])).
Proof. exact uvlist_exact. Qed.
Print Assumptions C15_uvlist_exact.

(* The glue classes add nothing but piecewise matching: SegmentedStringMatcher (without prefix matching) and
   PathMatcher's clause loop accept iff there are as many '/'-pieces as matchers and each piece is matched
   by its matcher (a "*" clause has no matcher and accepts anything). *)
Theorem C15_seg_match_piecewise :
  forall segs toks,
    seg_match_aux segs toks false = true <-> Forall2 (fun m t => clause_ok1 m t = true) segs toks.
Proof. exact seg_match_aux_exact. Qed.
Print Assumptions C15_seg_match_piecewise.

Theorem C15_path_clauses_piecewise :
  forall ms toks,
    clauses_match ms toks = true <->
    (length ms <= length toks)%nat /\ Forall2 (fun m t => clause_ok1 m t = true) ms (firstn (length ms) toks).
Proof. exact clauses_match_spec. Qed.
Print Assumptions C15_path_clauses_piecewise.

(* GetPathDepth (as repaired by 7a6d758) counts exactly the clauses MatchesPath tokenises and PutPathString files:
   the path, less one leading '/', cut at EVERY '/' (empty clauses included; the empty path has none).  Hence
   MatchesPath against one stored path is exactly clause-by-clause matching, for every subject path. *)
Theorem C15_path_depth_clauses :
  forall p, path_depth p = length (hard_split ch_slash (skip_slash p)).
Proof. exact path_depth_clauses. Qed.
Print Assumptions C15_path_depth_clauses.

Theorem C15_path_matches_exact :
  forall ms subject,
    path_matches ms subject = true <->
    Forall2 (fun m t => clause_ok1 m t = true) ms (hard_split ch_slash (skip_slash subject)).
Proof. exact path_matches_exact. Qed.
Print Assumptions C15_path_matches_exact.

(* The laws of the client interface Pat/PatSpec.v hold for the model (used by C05). *)
Theorem C15_model_laws :
  forall engine, (forall re, ere_compile re <> CUnsupported -> engine re = ere_engine re) ->
    unique_sound_law (model_ops engine) /\ multi_complete_law (model_ops engine) /\
    escape_exact_law (model_ops engine) /\ escape_unique_law (model_ops engine) /\
    uvlist_sound_law (model_ops engine) uv_values /\ uvlist_not_unique_law (model_ops engine).
Proof. exact model_laws. Qed.
Print Assumptions C15_model_laws.

(* ---- non-vacuity: the premises are satisfiable by non-trivial instances *)

(* the engine premise is satisfied by the Ere model itself *)
Example C15_engine_premise_sat : forall re, ere_compile re <> CUnsupported -> ere_engine re = ere_engine re.
Proof. reflexivity. Qed.

(* ex_alt (Pat/PatProofs.v) is the well-formed pattern  a?*[^b-dx](\*|e,f.)  using every construct *)
Example C15_wf_example : wf_pattern ex_alt = true /\
  print_pattern true ex_alt = [126; 97; 63; 42; 91; 94; 98; 45; 100; 120; 93; 40; 92; 42; 124; 101; 44; 102; 46; 41].
Proof. vm_compute. split; reflexivity. Qed.
Example C15_match_example :
  matches (fst (set_pattern ere_engine sm_init (print_pattern false ex_alt) true)) [97; 120; 121; 122; 97; 102; 46] = true /\
  matches (fst (set_pattern ere_engine sm_init (print_pattern false ex_alt) true)) [97; 120; 121; 122; 99; 102; 46] = false.
Proof. vm_compute. split; reflexivity. Qed.

(* a unique pattern with escapes and a trailing backslash:  a\*.\  *)
Example C15_unique_example :
  is_unique (fst (set_pattern ere_engine sm_init [97; 92; 42; 46; 92] true)) = true /\
  unescape [97; 92; 42; 46; 92] = [97; 42; 46; 92] /\
  matches (fst (set_pattern ere_engine sm_init [97; 92; 42; 46; 92] true)) [97; 42; 46; 92] = true.
Proof. vm_compute. repeat split; reflexivity. Qed.

(* two different strings match a*, and it is reported non-unique *)
Example C15_multi_example :
  matches (fst (set_pattern ere_engine sm_init [97; 42] true)) [97] = true /\
  matches (fst (set_pattern ere_engine sm_init [97; 42] true)) [97; 98] = true /\
  is_unique (fst (set_pattern ere_engine sm_init [97; 42] true)) = false.
Proof. vm_compute. repeat split; reflexivity. Qed.

(* a range list with the four numeric clause forms, and a numeral with leading zeros inside it:  <7,20-10,-3,4000000000->  vs 0015 *)
Example C15_range_example :
  forallb clause_ok [RSingle 7; RBetween 20 10; RUpTo 3; RFrom 4000000000] = true /\
  print_range_pattern false [RSingle 7; RBetween 20 10; RUpTo 3; RFrom 4000000000] =
    [60; 55; 44; 50; 48; 45; 49; 48; 44; 45; 51; 44; 52; 48; 48; 48; 48; 48; 48; 48; 48; 48; 45; 62] /\
  matches (fst (set_pattern ere_engine sm_init (print_range_pattern false [RSingle 7; RBetween 20 10; RUpTo 3; RFrom 4000000000]) true))
          (repeat 48 2 ++ print_num 15) = true /\
  matches (fst (set_pattern ere_engine sm_init (print_range_pattern false [RSingle 7; RBetween 20 10; RUpTo 3; RFrom 4000000000]) true))
          (print_num 8) = false.
Proof. vm_compute. repeat split; reflexivity. Qed.

(* a list-of-unique-values pattern with an escaped comma and an empty value:  a\,b,,c  *)
Example C15_uvlist_example :
  is_uvlist (fst (set_pattern ere_engine sm_init [97; 92; 44; 98; 44; 44; 99] true)) = true /\
  uv_segs [97; 92; 44; 98; 44; 44; 99] false [] = [[97; 44; 98]; []; [99]] /\
  uv_values [97; 92; 44; 98; 44; 44; 99] = [[97; 44; 98]; [99]] /\
  matches (fst (set_pattern ere_engine sm_init [97; 92; 44; 98; 44; 44; 99] true)) [97; 44; 98] = true.
Proof. vm_compute. repeat split; reflexivity. Qed.

(* the reader accepts the example pattern string and returns the example tree *)
Example C15_sparse_example : sparse (print_pattern false ex_alt) = Some ex_alt.
Proof. vm_compute. reflexivity. Qed.

(* the range reader accepts the example string  ~<7,20-10,-3,4000000000->  *)
Example C15_read_ranges_example :
  read_ranges (print_range_pattern true [RSingle 7; RBetween 20 10; RUpTo 3; RFrom 4000000000]) =
  Some (true, [RSingle 7; RBetween 20 10; RUpTo 3; RFrom 4000000000]).
Proof. vm_compute. reflexivity. Qed.

(* a subject path with an empty clause: "xy/" has two clauses and is matched by the two-clause pattern "*/*" *)
Example C15_path_example :
  path_depth [120; 121; 47] = 2%nat /\ path_depth [47] = 0%nat /\ path_depth [97; 47; 47; 98] = 3%nat /\
  match path_put ere_engine [42; 47; 42] with Some ms => path_matches ms [120; 121; 47] | None => false end = true.
Proof. vm_compute. repeat split; reflexivity. Qed.
