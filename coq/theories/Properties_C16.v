(* C16 -- property theorems only: each is closed by [exact] of a lemma proved elsewhere.

   Reading guide.  [step1 ow jk sq] is the code-shaped model of util/Queue.h (ring window over a
   NULL / inline / heap array, EnsureSizeAux's reallocation policy, ...) for owning (ow=true) or
   trivially copyable (ow=false) items, jk being what an uninitialised trivial slot holds and sq the
   inline array size; [step0] is the ideal sequence; [abs] reads the user-visible items off the
   representation; [inv] is the representation invariant (spelled out by C16_inv_meaning). *)
From Coq Require Import List Arith ZArith.
From Coq Require Import Sorting.Permutation Sorting.Sorted.
From Muscle Require Import Cont.QueueModel Cont.QueueInv Cont.QueueRotateCS Cont.QueueSortCS Cont.QueueSort Cont.QueueProofs Cont.QueueConst
  Cont.QueueTwo.
Import ListNotations.

(* what the invariant says, slot by slot *)
Theorem C16_inv_meaning : forall (ow : bool) (sq : nat) (q : q1),
  inv ow sq q <->
  (0 < sq /\ cnt q <= qsize q /\ (0 < qsize q -> head q < qsize q) /\
   (0 < cnt q -> tail q = intern q (cnt q - 1)) /\
   match st q with SNull => arr q = [] | SSmall => qsize q = sq | SHeap => True end /\
   (ow = true -> forall s, s < qsize q -> (forall i, i < cnt q -> intern q i <> s) ->
      nth s (arr q) dflt = dflt) /\
   (st q <> SSmall ->
      length (inl q) = sq /\ (ow = true -> forall i, i < sq -> nth i (inl q) dflt = dflt))).
Proof. exact inv_slots_iff. Qed.
Print Assumptions C16_inv_meaning.

Theorem C16_inv_empty : forall (ow : bool) (sq : nat) (jk : Z), 0 < sq -> inv ow sq (empty_q ow jk sq).
Proof. exact inv_empty. Qed.
Print Assumptions C16_inv_empty.

(* every one of the 40 modelled single-queue operations, on every state satisfying the invariant, for both item
   kinds, every junk value and every inline-array size: the invariant is preserved, the resulting
   items are those of the ideal sequence and the result (value / status / count / index) is the same *)
Theorem C16_step_refines : forall (ow : bool) (jk : Z) (sq : nat) (q : q1) (o : op),
  inv ow sq q ->
  inv ow sq (fst (step1 ow jk sq q o)) /\
  abs (fst (step1 ow jk sq q o)) = fst (step0 (abs q) o) /\
  snd (step1 ow jk sq q o) = snd (step0 (abs q) o).
Proof. exact step_refines. Qed.
Print Assumptions C16_step_refines.

(* a failing operation (bad index, empty queue, item not found) leaves the representation unchanged *)
Theorem C16_fail_unchanged : forall (ow : bool) (jk : Z) (sq : nat) (q : q1) (o : op),
  snd (step1 ow jk sq q o) = OVal None \/ snd (step1 ow jk sq q o) = OStatus false ->
  fst (step1 ow jk sq q o) = q.
Proof. exact step_fail_unchanged. Qed.
Print Assumptions C16_fail_unchanged.

(* the ideal operation answers "none"/"err" exactly when it is undefined (empty sequence, bad index, item not
   present) and then returns the sequence unchanged; with C16_step_refines the Queue reports failure in exactly
   those cases *)
Theorem C16_ideal_fails_iff : forall (l : list Z) (o : op),
  (snd (step0 l o) = OVal None \/ snd (step0 l o) = OStatus false) <-> undefined0 l o.
Proof. exact step0_fails_iff. Qed.
Print Assumptions C16_ideal_fails_iff.

Theorem C16_ideal_fail_unchanged : forall (l : list Z) (o : op),
  snd (step0 l o) = OVal None \/ snd (step0 l o) = OStatus false -> fst (step0 l o) = l.
Proof. exact step0_fail_unchanged. Qed.
Print Assumptions C16_ideal_fail_unchanged.

(* every operation list from the empty queue *)
Theorem C16_queue_refines : forall (ow : bool) (jk : Z) (sq : nat) (ops : list op), 0 < sq ->
  inv ow sq (fst (run1 ow jk sq ops)) /\
  abs (fst (run1 ow jk sq ops)) = fst (run0 ops) /\
  snd (run1 ow jk sq ops) = snd (run0 ops).
Proof. exact run_refines. Qed.
Print Assumptions C16_queue_refines.

(* ... in particular for the SMALL_QUEUE_SIZE translated from util/Queue.h *)
Theorem C16_queue_refines_code_constant : forall (ow : bool) (jk : Z) (ops : list op),
  inv ow small_queue_size (fst (run1 ow jk small_queue_size ops)) /\
  abs (fst (run1 ow jk small_queue_size ops)) = fst (run0 ops) /\
  snd (run1 ow jk small_queue_size ops) = snd (run0 ops).
Proof. exact (fun ow jk ops => run_refines ow jk small_queue_size ops small_queue_size_pos). Qed.
Print Assumptions C16_queue_refines_code_constant.

Theorem C16_reachable_inv : forall (ow : bool) (jk : Z) (sq : nat) (q : q1),
  0 < sq -> reachable ow jk sq q -> inv ow sq q.
Proof. exact reachable_inv. Qed.
Print Assumptions C16_reachable_inv.

(* no stale items: growing the count with EnsureSize(n, true) yields default items, both item kinds *)
Theorem C16_no_stale_grow : forall (ow : bool) (jk : Z) (sq : nat) (q : q1) (n extra : nat) (shrink : bool),
  inv ow sq q -> cnt q <= n ->
  let q' := ensure_size ow jk sq q n true extra shrink in
  cnt q' = n /\ (forall i, i < cnt q -> getu q' i = getu q i) /\
  (forall i, cnt q <= i < n -> getu q' i = dflt).
Proof. exact no_stale_grow. Qed.
Print Assumptions C16_no_stale_grow.

(* no stale items: owning items never survive outside the window (shrink, wrap-around, removal) *)
Theorem C16_no_stale_slots : forall (ow : bool) (jk : Z) (sq : nat) (q : q1),
  0 < sq -> ow = true -> reachable ow jk sq q ->
  forall s, s < qsize q -> (forall i, i < cnt q -> intern q i <> s) -> nth s (arr q) dflt = dflt.
Proof. exact (fun ow jk sq q Hsq Ho R => inv_outside_window ow sq q (reachable_inv ow jk sq q Hsq R) Ho). Qed.
Print Assumptions C16_no_stale_slots.

(* nothing a user observes depends on uninitialised memory *)
Theorem C16_junk_independent : forall (ow : bool) (sq : nat) (jk1 jk2 : Z) (ops : list op), 0 < sq ->
  abs (fst (run1 ow jk1 sq ops)) = abs (fst (run1 ow jk2 sq ops)) /\
  snd (run1 ow jk1 sq ops) = snd (run1 ow jk2 sq ops).
Proof. exact junk_independent. Qed.
Print Assumptions C16_junk_independent.

(* what the ideal Sort(from, to) -- which C16_step_refines and C16_sort_code_shaped show the Queue's Sort to equal --
   guarantees: a permutation; outside the range nothing moves; inside, sorted by the key (the item itself, or
   x/4 for the key-only comparison) with equal-key items in their original order (stability) *)
Theorem C16_sort_perm : forall (bk : bool) (l : list Z) (f t : nat), Permutation (l0_sort bk l f t) l.
Proof. exact l0_sort_perm. Qed.
Print Assumptions C16_sort_perm.

Theorem C16_sort_range : forall (bk : bool) (l : list Z) (f t : nat),
  let t' := Nat.min t (length l) in
  f < t' ->
  exists mid, l0_sort bk l f t = firstn f l ++ mid ++ skipn t' l /\ length mid = t' - f /\
    StronglySorted (key_le (sort_key bk)) mid /\
    forall v, filter (fun y => Z.eqb (sort_key bk y) v) mid =
              filter (fun y => Z.eqb (sort_key bk y) v) (firstn (t' - f) (skipn f l)).
Proof. exact l0_sort_range. Qed.
Print Assumptions C16_sort_range.

(* the code-shaped in-place merge sort of the model (bubble sort below 12 items, Merge with Lower/Upper cuts, rotation by
   gcd cycles; [sort_cs], which the representation-level Sort of C16_step_refines runs) computes that ideal stable sort *)
Theorem C16_sort_code_shaped : forall (bk : bool) (l : list Z) (f t : nat),
  sort_cs (sort_key bk) l f t = l0_sort bk l f t.
Proof. exact sort_cs_is_l0_sort. Qed.
Print Assumptions C16_sort_code_shaped.

(* the rotation by gcd cycles inside Merge: the middle runs X and Y change places, nothing else moves *)
Theorem C16_rotate_by_cycles : forall (P X Y S : list Z) (fc pv sc : nat),
  fc = length P -> pv = fc + length X -> sc = pv + length Y ->
  rotate_cs (P ++ X ++ Y ++ S) fc pv sc = P ++ Y ++ X ++ S.
Proof. exact rotate_cs_ok. Qed.
Print Assumptions C16_rotate_by_cycles.

(* Normalize's rotation of the whole array by _headIndex (Paul Hsieh's cycle algorithm, counted until every slot has
   moved) brings slot _headIndex to the front and keeps the cyclic order *)
Theorem C16_normalize_rotation : forall (a : list Z) (hd : nat),
  0 < hd < length a -> hsieh_rotate a hd = skipn hd a ++ firstn hd a.
Proof. exact hsieh_rotate_ok. Qed.
Print Assumptions C16_normalize_rotation.

(* ReleaseRawDataArray: the array handed out holds the items -- in user order when an in-object array had to be
   copied, in ring order when the heap array itself is handed out *)
Theorem C16_release_array_items : forall (jk : Z) (sq : nat) (ow : bool) (q : q1) (i : nat),
  inv ow sq q -> i < cnt q ->
  nth (match st q with SSmall => i | _ => intern q i end) (snd (release ow jk q)) 0%Z = getu q i.
Proof. exact release_array_items. Qed.
Print Assumptions C16_release_array_items.

(* ---- two queues: SwapContents, Plunder (move), operator=, ==, StartsWith/EndsWith, the Queue-argument
   forms of AddTailMulti/AddHeadMulti/InsertItemsAt, also with a Queue passed as its own argument *)
Theorem C16_step2_refines : forall (jk : Z) (sq : nat) (ow : bool) (p : q1 * q1) (o : op2),
  inv2 sq ow p ->
  inv2 sq ow (fst (step2 ow jk sq p o)) /\
  abs2 (fst (step2 ow jk sq p o)) = fst (step20 (abs2 p) o) /\
  snd (step2 ow jk sq p o) = snd (step20 (abs2 p) o).
Proof. exact step2_refines. Qed.
Print Assumptions C16_step2_refines.

Theorem C16_queue_pair_refines : forall (jk : Z) (sq : nat) (ow : bool) (ops : list op2), 0 < sq ->
  inv2 sq ow (fst (run2 ow jk sq ops)) /\
  abs2 (fst (run2 ow jk sq ops)) = fst (run20 ops) /\
  snd (run2 ow jk sq ops) = snd (run20 ops).
Proof. exact run2_refines. Qed.
Print Assumptions C16_queue_pair_refines.

(* finding F36: an a.AddHeadMulti(a, ...) whose loop reads the queue it prepends to violates the ideal
   semantics when enough slots are unused; the form that always copies first does not *)
Theorem C16_add_head_multi_self_old_refuted : exists q start num,
  inv false 3 q /\
  abs (add_head_multi_self_old false 0%Z 3 q start num) <> slice (abs q) start num ++ abs q /\
  abs (add_head_multi_q false 0%Z 3 q (abs q) start num) = slice (abs q) start num ++ abs q.
Proof. exact add_head_multi_self_old_refuted. Qed.
Print Assumptions C16_add_head_multi_self_old_refuted.


(* finding F35: a SwapContentsAux that leaves the moved items behind in the vacated in-object array loses the invariant;
   the one that resets them keeps it *)
Theorem C16_swap_contents_aux_old_refuted : exists sm lg,
  inv true 3 sm /\ inv true 3 lg /\ st sm = SSmall /\ st lg <> SSmall /\
  ~ inv true 3 (fst (swap_contents_aux_old sm lg)) /\
  inv true 3 (fst (swap_contents_aux true sm lg)).
Proof. exact swap_contents_aux_old_refuted. Qed.
Print Assumptions C16_swap_contents_aux_old_refuted.

(* non-vacuity of the premise [inv q]: a reachable wrapped-around state on the inline array, and a
   heap state of trivial items with junk outside the window *)
Example C16_wrapped_state : exists q,
  reachable true 0%Z 3 q /\ inv true 3 q /\ st q = SSmall /\ cnt q = 3 /\ head q = 1 /\ tail q = 0.
Proof. exact wrapped_state. Qed.

Example C16_heap_state : exists q,
  inv false 3 q /\ st q = SHeap /\ cnt q = 2 /\ In 77%Z (arr q) /\ ~ In 77%Z (abs q).
Proof. exact heap_state. Qed.

Example C16_two_state : exists p,
  inv2 3 true p /\ st (fst p) = SHeap /\ st (snd p) = SSmall /\ abs2 p = ([1; 2; 3; 4; 5]%Z, [7; 8]%Z).
Proof. exact two_state. Qed.
