(* C20 -- the property theorems, each closed by [exact] of a lemma proved in Pulse/; at the end the non-vacuity
   examples (ex_gt, ex_pl, ex_ops), proved by evaluation.
   Model: Pulse/PulseModel.v (util/PulseNode.{h,cpp}); oracles gt/pl = the virtual GetPulseTime()/Pulse(). *)
From Coq Require Import List Arith NArith Lia.
From Muscle Require Import Pulse.PulseModel Pulse.PulseInv Pulse.PulseOps Pulse.PulseSweep Pulse.PulseReach Pulse.PulseMin
     Pulse.PulseExact Pulse.PulseAsk Pulse.PulseRefuted Pulse.PulseForest Pulse.PulseFuel Pulse.PulseFuelAny Pulse.PulseSafe.
Import ListNotations.

(* the translated constant the model's clamp rests on *)
Theorem C20_never_is_uint64_max : NEVER = (2 ^ 64 - 1)%N.
Proof. exact never_is_uint64_max. Qed.
Print Assumptions C20_never_is_uint64_max.

(* every state reachable by any history of create/attach/detach/clear/destroy/invalidate operations and
   manager sweeps -- with Pulse() callbacks that may perform any such operations on any nodes, and GetPulseTime()
   callbacks that are arbitrary functions performing no operations -- satisfies the invariants [Good]:
   well-formed intrusive lists, sorted scheduled lists, exact aggregates of valid listed nodes, and every node
   whose time is not valid is on its parent's needs-recalc list (hence on a needs-recalc path to its root). *)
Theorem C20_reach_inv :
  forall (gt : nmap -> nat -> nat -> N -> N -> N * list cop) (pl : nmap -> nat -> nat -> N -> N -> list cop),
    (forall m x k now prev, snd (gt m x k now prev) = []) ->
    forall f os s, run gt pl f init_state os = Some s -> Good nobody (nd s).
Proof. exact reach_inv. Qed.
Print Assumptions C20_reach_inv.

(* the invariants survive every single operation a Pulse() callback (or anybody) performs, also in the middle of a
   pulse sweep (G = the nodes whose PulseAux is running) *)
Theorem C20_cop_preserves :
  forall G f m o m', Good G m -> apply_cop f m o = Some m' -> Good G m'.
Proof. exact apply_cop_good. Qed.
Print Assumptions C20_cop_preserves.

(* the wake-up time the root reports is the minimum of the times requested by all attached nodes, and
   after the sweep every attached node has been asked (valid) and nothing awaits recalculation *)
Theorem C20_recalc_min :
  forall (gt : nmap -> nat -> nat -> N -> N -> N * list cop),
    (forall m x k now prev, snd (gt m x k now prev) = []) ->
    forall f s r now s',
      Good nobody (nd s) -> is_root (nd s) r = true -> top_get gt f s r now = Some s' ->
      exists mn, hd_error (evs s') = Some (EMin r mn) /\ mn = agg (nd s' r) /\
        Good nobody (nd s') /\
        (forall y, desc (nd s') r y -> settled (nd s') y /\ (mn <= sched (nd s' y))%N) /\
        (exists y, desc (nd s') r y /\ sched (nd s' y) = mn) /\
        (forall y, parent (nd s' y) = parent (nd s y)).
Proof. exact recalc_min. Qed.
Print Assumptions C20_recalc_min.

(* recalc_asks ("each such node is asked again for its next time before the next wait"): the recalculation sweep calls
   GetPulseTime() on exactly the attached nodes whose time is not valid (fired, invalidated, newly attached), once each,
   with (now, previous value), and on nobody else *)
Theorem C20_recalc_asks :
  forall (gt : nmap -> nat -> nat -> N -> N -> N * list cop),
    (forall m x k now prev, snd (gt m x k now prev) = []) ->
    forall f s r now s',
      Good nobody (nd s) -> is_root (nd s) r = true -> top_get gt f s r now = Some s' ->
      exists mn d, evs s' = EMin r mn :: d ++ evs s /\ NoDup (map ev_node d) /\
        (forall e, In e d -> exists y k, e = EGet y k now (sched (nd s y)) /\ desc (nd s) r y /\ valid (nd s y) = false) /\
        (forall y, desc (nd s) r y -> valid (nd s y) = false -> exists k, In (EGet y k now (sched (nd s y))) d).
Proof. exact recalc_asks. Qed.
Print Assumptions C20_recalc_asks.

(* an invalid node cannot be forgotten ("a timer that silently never fires"): in every Good state an attached node whose
   time is not valid, and every one of its ancestors that has a parent, is on a needs-recalc list *)
Theorem C20_invalid_on_recalc_path :
  forall m x, Good nobody m -> valid (m x) = false ->
    forall a, desc m a x -> parent (m a) <> None -> cur (m a) = LRecalc.
Proof. exact invalid_on_recalc_path. Qed.
Print Assumptions C20_invalid_on_recalc_path.

(* THE PROPERTY for one manager cycle (recalculation sweep, then pulse sweep -- what ReflectServer does when
   it wakes up) from any Good state, with callbacks that perform no operations: all attached nodes asked, reported time =
   minimum of the requested times, Pulse() on exactly the attached nodes with requested time <= now, once each, with
   (now, requested time), each invalid and queued for being asked again afterwards *)
Theorem C20_cycle_exact :
  forall (gt : nmap -> nat -> nat -> N -> N -> N * list cop) (pl : nmap -> nat -> nat -> N -> N -> list cop),
    (forall m x k now prev, snd (gt m x k now prev) = []) -> (forall m x k now st, pl m x k now st = []) ->
    forall f s r now s',
      (now < NEVER)%N -> Good nobody (nd s) -> is_root (nd s) r = true ->
      step gt pl f s (TCycle r now) = Some s' ->
      exists s1 mn,
        top_get gt f s r now = Some s1 /\ top_pulse pl f s1 r now = Some s' /\
        hd_error (evs s1) = Some (EMin r mn) /\
        (forall y, desc (nd s1) r y -> valid (nd s1 y) = true /\ (mn <= sched (nd s1 y))%N) /\
        (exists y, desc (nd s1) r y /\ sched (nd s1 y) = mn) /\
        Good nobody (nd s') /\
        exists d, evs s' = d ++ evs s1 /\ NoDup (map ev_node d) /\
          (forall e, In e d -> exists y k, e = EPulse y k now (sched (nd s1 y)) /\ desc (nd s1) r y /\ (sched (nd s1 y) <= now)%N) /\
          (forall y, desc (nd s1) r y -> (sched (nd s1 y) <= now)%N -> exists k, In (EPulse y k now (sched (nd s1 y))) d) /\
          (forall y, desc (nd s1) r y -> (sched (nd s1 y) <= now)%N ->
                     valid (nd s' y) = false /\ (parent (nd s' y) <> None -> cur (nd s' y) = LRecalc)).
Proof. exact cycle_exact. Qed.
Print Assumptions C20_cycle_exact.

(* on a freshly recalculated tree, with Pulse() callbacks that do not restructure it, a pulse sweep at
   time now calls Pulse() on exactly the attached nodes whose requested time is <= now, once each, with
   (now, requested time); each is invalid afterwards and on its parent's needs-recalc list *)
Theorem C20_pulse_exact :
  forall (pl : nmap -> nat -> nat -> N -> N -> list cop),
    (forall m x k now st, pl m x k now st = []) ->
    forall f s r now s',
      (now < NEVER)%N ->
      Good nobody (nd s) -> is_root (nd s) r = true -> settled (nd s) r ->
      agg (nd s r) = N.min (sched (nd s r)) (first_sched_agg (nd s) r) ->
      top_pulse pl f s r now = Some s' ->
      Good nobody (nd s') /\
      exists d, evs s' = d ++ evs s /\ NoDup (map ev_node d) /\
        (forall e, In e d -> exists y k, e = EPulse y k now (sched (nd s y)) /\ desc (nd s) r y /\ (sched (nd s y) <= now)%N) /\
        (forall y, desc (nd s) r y -> (sched (nd s y) <= now)%N -> exists k, In (EPulse y k now (sched (nd s y))) d) /\
        (forall y, desc (nd s) r y -> (sched (nd s y) <= now)%N ->
                   valid (nd s' y) = false /\ (parent (nd s' y) <> None -> cur (nd s' y) = LRecalc)).
Proof. exact pulse_exact. Qed.
Print Assumptions C20_pulse_exact.

(* the same with NO restriction on the pulse instant (MUSCLE_TIME_NEVER included): exactly the attached
   nodes with requested time <= now that are the root or have a finite aggregate fire; C20_never_request_not_fired spells
   out the boundary: at now = MUSCLE_TIME_NEVER a node that asked for "never" with nothing finite below it does not fire *)
Theorem C20_pulse_exact_gen :
  forall (pl : nmap -> nat -> nat -> N -> N -> list cop),
    (forall m x k now st, pl m x k now st = []) ->
    forall f s r now s',
      Good nobody (nd s) -> is_root (nd s) r = true -> settled (nd s) r ->
      agg (nd s r) = N.min (sched (nd s r)) (first_sched_agg (nd s) r) ->
      top_pulse pl f s r now = Some s' ->
      Good nobody (nd s') /\
      exists d, evs s' = d ++ evs s /\ NoDup (map ev_node d) /\
        (forall e, In e d -> exists y k, e = EPulse y k now (sched (nd s y)) /\ fires (nd s) r now y) /\
        (forall y, fires (nd s) r now y -> exists k, In (EPulse y k now (sched (nd s y))) d) /\
        (forall y, fires (nd s) r now y ->
                   valid (nd s' y) = false /\ (parent (nd s' y) <> None -> cur (nd s' y) = LRecalc)).
Proof. exact pulse_exact_gen. Qed.
Print Assumptions C20_pulse_exact_gen.

Theorem C20_never_request_not_fired :
  forall (pl : nmap -> nat -> nat -> N -> N -> list cop),
    (forall m x k now st, pl m x k now st = []) ->
    forall f s r s' y,
      Good nobody (nd s) -> is_root (nd s) r = true -> settled (nd s) r ->
      agg (nd s r) = N.min (sched (nd s r)) (first_sched_agg (nd s) r) ->
      top_pulse pl f s r NEVER = Some s' ->
      desc (nd s) r y -> y <> r -> agg (nd s y) = NEVER ->
      forall k st, ~ In (EPulse y k NEVER st) (firstn (length (evs s') - length (evs s)) (evs s')).
Proof. exact never_request_not_fired. Qed.
Print Assumptions C20_never_request_not_fired.

(* pulse_never_early_once (the "no loss" companion for callbacks that DO restructure the tree from inside Pulse():
   invalidate, detach, re-parent, destroy any node): every Pulse() call of the sweep is for a node whose requested
   time was valid and <= now when the sweep began, carries that time, no node is called twice, each called node is
   invalid afterwards, and the invariants [Good] hold again -- so by C20_recalc_min the next recalculation reports a
   time <= the request of every node that is still attached, in particular of a due node the sweep did not reach *)
Theorem C20_pulse_never_early_once :
  forall (pl : nmap -> nat -> nat -> N -> N -> list cop) f s r now s',
    Good nobody (nd s) -> top_pulse pl f s r now = Some s' ->
    Good nobody (nd s') /\ ev_rel now s s'.
Proof. exact pulse_never_early_once. Qed.
Print Assumptions C20_pulse_never_early_once.

(* GetPulseTime() callbacks that DO perform operations.  [run_s] / [top_get_s] are the model with one extra check: a
   GetPulseTime() callback's operation is refused (result None) when it would invalidate, detach, re-attach or destroy a
   node whose own GetPulseTimeAux is running (the node itself or an ancestor up to the swept root).  Whenever they return
   a state, the plain model returns the same state, and:
   reach_inv_safe -- the state is Good (Pulse() callbacks arbitrary);
   recalc_min_safe -- after the sweep every attached node is valid, the root's aggregate is the minimum of the requested
   times, and the reported time is not later than it (it can be earlier: a harmless early wake-up).
   With C20_reentrant_recalc_refuted / C20_f16_history_refused the excluded callbacks are exactly those of finding F16. *)
Theorem C20_reach_inv_safe :
  forall (gt : nmap -> nat -> nat -> N -> N -> N * list cop) (pl : nmap -> nat -> nat -> N -> N -> list cop) f os s,
    run_s gt pl f init_state os = Some s -> run gt pl f init_state os = Some s /\ Good nobody (nd s).
Proof. exact reach_inv_safe. Qed.
Print Assumptions C20_reach_inv_safe.

Theorem C20_recalc_min_safe :
  forall (gt : nmap -> nat -> nat -> N -> N -> N * list cop) f s r now s',
    Good nobody (nd s) -> is_root (nd s) r = true -> top_get_s gt f s r now = Some s' ->
    top_get gt f s r now = Some s' /\
    exists mn, hd_error (evs s') = Some (EMin r mn) /\ (mn <= agg (nd s' r))%N /\
      Good nobody (nd s') /\
      (forall y, desc (nd s') r y -> settled (nd s') y /\ (agg (nd s' r) <= sched (nd s' y))%N) /\
      (exists y, desc (nd s') r y /\ sched (nd s' y) = agg (nd s' r)) /\
      agg (nd s' r) = N.min (sched (nd s' r)) (first_sched_agg (nd s') r) /\ is_root (nd s') r = true.
Proof. exact recalc_min_safe. Qed.
Print Assumptions C20_recalc_min_safe.

(* one manager cycle with such GetPulseTime() callbacks (and Pulse() callbacks that perform no
   operations): after the recalculation every attached node is valid and Pulse() runs on exactly the then-attached nodes
   whose requested time is <= now *)
Theorem C20_cycle_exact_safe :
  forall (gt : nmap -> nat -> nat -> N -> N -> N * list cop) (pl : nmap -> nat -> nat -> N -> N -> list cop),
    (forall m x k now st, pl m x k now st = []) ->
    forall f s r now s',
      (now < NEVER)%N -> Good nobody (nd s) -> is_root (nd s) r = true ->
      step_s gt pl f s (TCycle r now) = Some s' ->
      step gt pl f s (TCycle r now) = Some s' /\
      exists s1,
        top_get gt f s r now = Some s1 /\ top_pulse pl f s1 r now = Some s' /\
        (forall y, desc (nd s1) r y -> valid (nd s1 y) = true) /\
        Good nobody (nd s') /\
        exists d, evs s' = d ++ evs s1 /\ NoDup (map ev_node d) /\
          (forall e, In e d -> exists y k, e = EPulse y k now (sched (nd s1 y)) /\ desc (nd s1) r y /\ (sched (nd s1 y) <= now)%N) /\
          (forall y, desc (nd s1) r y -> (sched (nd s1 y) <= now)%N -> exists k, In (EPulse y k now (sched (nd s1 y))) d) /\
          (forall y, desc (nd s1) r y -> (sched (nd s1 y) <= now)%N ->
                     valid (nd s' y) = false /\ (parent (nd s' y) <> None -> cur (nd s' y) = LRecalc)).
Proof. exact cycle_exact_safe. Qed.
Print Assumptions C20_cycle_exact_safe.

Theorem C20_f16_history_refused : run_s rr_gt rr_pl 50 init_state rr_ops = None.
Proof. exact f16_history_refused. Qed.
Print Assumptions C20_f16_history_refused.

Example C20_safe_history_accepted :
  exists s, run_s sf_gt sf_pl 60 init_state sf_ops = Some s /\
            parent (nd s 3) = None /\ alive (nd s 4) = false /\ parent (nd s 1) = Some 0 /\
            length (filter (is_pulse_of 2) (evs s)) = 1.
Proof. exact safe_history_accepted. Qed.

(* the statement is REFUTED for GetPulseTime() callbacks that themselves invalidate (or re-attach) the node being
   recalculated: known finding F16, same witness as corpus/C20.txt line 1 *)
Theorem C20_reentrant_recalc_refuted :
  exists s, run rr_gt rr_pl 50 init_state rr_ops = Some s /\
    parent (nd s 1) = Some 0 /\ valid (nd s 1) = false /\ cur (nd s 1) = LUnsched /\
    length (filter (is_get_of 1) (evs s)) = 1 /\ filter (is_pulse_of 1) (evs s) = [] /\ ~ K2 nobody (nd s).
Proof. exact reentrant_recalc_refuted. Qed.
Print Assumptions C20_reentrant_recalc_refuted.

(* fuel adequacy: in any Good state, with fuel >= 2*B + N + 4 (B bounds a rank that grows from parent to child, e.g. the
   depth of the forest; N bounds the ids of the nodes in use) no operation of the manager returns OutOfFuel (None),
   for callbacks that perform no operations; C20_cop_total: the same for every user operation, in any Good state *)
Theorem C20_step_total :
  forall (gt : nmap -> nat -> nat -> N -> N -> N * list cop) (pl : nmap -> nat -> nat -> N -> N -> list cop),
    (forall m x k now prev, snd (gt m x k now prev) = []) -> (forall m x k now st, pl m x k now st = []) ->
    forall f s o, Good nobody (nd s) -> fits f (nd s) -> exists s', step gt pl f s o = Some s'.
Proof. exact step_total. Qed.
Print Assumptions C20_step_total.

(* ... and the general form: ANY Pulse() callbacks (restructuring the forest from inside the sweep), fuel >= 3N+4 where
   N bounds the ids of the nodes in use *)
Theorem C20_step_total_any :
  forall (gt : nmap -> nat -> nat -> N -> N -> N * list cop) (pl : nmap -> nat -> nat -> N -> N -> list cop),
    (forall m x k now prev, snd (gt m x k now prev) = []) ->
    forall f s o N,
      Good nobody (nd s) -> (forall y, alive (nd s y) = true -> y < N) -> 3 * N + 4 <= f ->
      exists s', step gt pl f s o = Some s'.
Proof. exact step_total_any. Qed.
Print Assumptions C20_step_total_any.

(* every history that creates only nodes with ids below N runs to completion with fuel >= 3N+4 (so the
   theorems above, stated for runs that return a state, cover every such history) *)
Theorem C20_run_total :
  forall (gt : nmap -> nat -> nat -> N -> N -> N * list cop) (pl : nmap -> nat -> nat -> N -> N -> list cop),
    (forall m x k now prev, snd (gt m x k now prev) = []) ->
    forall f N os, 3 * N + 4 <= f -> Forall (creates_below N) os -> exists s', run gt pl f init_state os = Some s'.
Proof.
  exact (fun gt pl Hgt f N os Hf Hall =>
           run_total gt pl Hgt f N Hf os init_state Good_init (fun y Hy => False_ind _ (Bool.diff_false_true Hy)) Hall).
Qed.
Print Assumptions C20_run_total.

Theorem C20_cop_total :
  forall G rk B N f m o,
    Good G m -> edges rk m -> (forall y, rk y <= B) -> (forall y, alive (m y) = true -> y < N) ->
    N + B + 2 <= f -> exists m', apply_cop f m o = Some m'.
Proof. exact apply_cop_fuel. Qed.
Print Assumptions C20_cop_total.

(* non-vacuity: a concrete history reaches a state with a three-level tree, and its recalculation reports 5 *)
Definition ex_gt : nmap -> nat -> nat -> N -> N -> N * list cop :=
  fun _ x _ _ _ => (match x with 2 => 5%N | 1 => 9%N | _ => NEVER end, []).
Definition ex_pl : nmap -> nat -> nat -> N -> N -> list cop := fun _ _ _ _ _ => [].
Definition ex_ops : list (top) :=
  [TNew 0; TNew 1; TNew 2; TOp (CAttach 0 1); TOp (CAttach 1 2); TGet 0 1%N].

Example C20_nonvacuous :
  exists s, run ex_gt ex_pl 50 init_state ex_ops = Some s /\
            parent (nd s 2) = Some 1 /\ parent (nd s 1) = Some 0 /\ is_root (nd s) 0 = true /\
            hd_error (evs s) = Some (EMin 0 5%N).
Proof. vm_compute. eexists. repeat split. Qed.

(* non-vacuity of C20_pulse_exact's premises: the state reached above is settled with an exact root aggregate,
   and the sweep at time 7 fires node 2 (time 5) and not node 1 (time 9) *)
Example C20_pulse_exact_nonvacuous :
  (forall m x k now st, ex_pl m x k now st = []) /\ (7 < NEVER)%N /\
  exists s, run ex_gt ex_pl 50 init_state ex_ops = Some s /\
    Good nobody (nd s) /\ is_root (nd s) 0 = true /\ settled (nd s) 0 /\
    agg (nd s 0) = N.min (sched (nd s 0)) (first_sched_agg (nd s) 0) /\
    exists s', top_pulse ex_pl 50 s 0 7%N = Some s' /\ hd_error (evs s') = Some (EPulse 2 0 7%N 5%N).
Proof.
  split; [reflexivity|]. split; [reflexivity|].
  assert (E : exists s, run ex_gt ex_pl 50 init_state ex_ops = Some s /\
                is_root (nd s) 0 = true /\ valid (nd s 0) = true /\ lr (nd s 0) = [] /\
                agg (nd s 0) = N.min (sched (nd s 0)) (first_sched_agg (nd s) 0) /\
                exists s', top_pulse ex_pl 50 s 0 7%N = Some s' /\ hd_error (evs s') = Some (EPulse 2 0 7%N 5%N)).
  { eexists. do 5 (split; [vm_compute; reflexivity|]). eexists. split; vm_compute; reflexivity. }
  destruct E as (s & Hrun & Hroot & Hv & Hlr & Hagg & Hp).
  exists s. split; [exact Hrun|]. split; [exact (reach_inv ex_gt ex_pl (fun _ _ _ _ _ => eq_refl) 50 ex_ops s Hrun)|].
  split; [exact Hroot|]. split; [split; assumption|]. split; assumption.
Qed.

(* non-vacuity of C20_step_total's premise [fits]: the state reached above fits fuel 50 *)
Example C20_fits_nonvacuous :
  exists s, run ex_gt ex_pl 50 init_state ex_ops = Some s /\ fits 50 (nd s).
Proof.
  eexists. split; [vm_compute; reflexivity|].
  exists (fun y => Nat.min y 2), 2, 3. split; [|split; [|split]].
  - intros c p. destruct c as [|[|[|c]]]; vm_compute; intro H; inversion H; subst; lia.
  - intro y. apply Nat.le_min_r.
  - intros y H. destruct y as [|[|[|y]]]; try lia. vm_compute in H. discriminate H.
  - lia.
Qed.
