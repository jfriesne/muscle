(* Flt/FltNumProofs.v -- the numeric filters (C14): unknown operator codes, integers as two's complement
   values, mask operations bit by bit, IEEE-754 facts of the float comparison (NaN unordered, -0 = +0, +infinity
   on top), and the missing-data rule (value in the Message, else the assumed default, else no match). *)
From Coq Require Import List NArith ZArith Bool Strings.Byte Lia.
From Muscle Require Import Gen.Consts Msg.MsgDefs Msg.MsgModel Msg.MsgBytesProofs Flt.FltModel.
Import ListNotations.
Local Open Scope N_scope.

(* ------------------------------------------------------------------ the operator table *)

Lemma eqb_above op c n : n <= op -> c < n -> (op =? c) = false.
Proof. intros H1 H2. apply N.eqb_neq. lia. Qed.

Theorem ord_test_unknown op o : c_NQF_NUM_NUMERIC_OPERATORS <= op -> ord_test op o = false.
Proof. intros H. unfold ord_test. rewrite !(eqb_above op _ _ H) by reflexivity. reflexivity. Qed.

(* an unordered pair (a NaN is involved) fails ==, <, >, <=, >= and satisfies != *)
Theorem unordered_table op :
  ord_test op OUn = (op =? c_NQF_OP_NOT_EQUAL_TO).
Proof.
  unfold ord_test.
  repeat match goal with
         | |- (if ?c then _ else _) = _ =>
             let E := fresh "E" in destruct c eqn:E; [apply N.eqb_eq in E; subst op; reflexivity|]
         end.
  reflexivity.
Qed.

(* ------------------------------------------------------------------ integers: two's complement *)

Lemma p2nz k : 2 ^ k <> 0.
Proof. apply N.pow_nonzero. discriminate. Qed.

Lemma pow2_pos w : 0 < 2 ^ w.
Proof. apply N.neq_0_lt_0, p2nz. Qed.

Lemma uval_lt w bs : uval w bs < 2 ^ w.
Proof. apply N.mod_lt, p2nz. Qed.

Lemma pow2_split w : 0 < w -> 2 ^ w = 2 * 2 ^ (w - 1).
Proof. intros H. rewrite <- N.pow_succ_r'. f_equal. lia. Qed.

(* sval is THE two's complement reading: in range, and congruent to the pattern modulo 2^w *)
Theorem sval_range w u : 0 < w -> u < 2 ^ w ->
  (- Z.of_N (2 ^ (w - 1)) <= sval w u < Z.of_N (2 ^ (w - 1)))%Z.
Proof.
  intros Hw Hu. unfold sval. pose proof (pow2_split w Hw) as Hs. pose proof (pow2_pos (w - 1)).
  destruct (u <? 2 ^ (w - 1)) eqn:E; [apply N.ltb_lt in E|apply N.ltb_ge in E]; lia.
Qed.

Theorem sval_congruent w u : 0 < w -> u < 2 ^ w -> (sval w u mod Z.of_N (2 ^ w) = Z.of_N u)%Z.
Proof.
  intros Hw Hu. unfold sval. pose proof (pow2_pos w).
  destruct (u <? 2 ^ (w - 1)) eqn:E.
  - apply Z.mod_small. lia.
  - rewrite <- (Z.mod_add _ 1) by lia. replace (Z.of_N u - Z.of_N (2 ^ w) + 1 * Z.of_N (2 ^ w))%Z with (Z.of_N u) by lia.
    apply Z.mod_small. lia.
Qed.

Lemma sval_inj w u v : 0 < w -> u < 2 ^ w -> v < 2 ^ w -> sval w u = sval w v -> u = v.
Proof.
  intros Hw Hu Hv H. apply N2Z.inj. rewrite <- (sval_congruent w u), <- (sval_congruent w v) by assumption.
  rewrite H. reflexivity.
Qed.

(* the comparison of two integer items is the comparison of their two's complement values; never unordered *)
Theorem int_ord_spec w a b : 0 < w ->
  let x := sval w (uval w a) in let y := sval w (uval w b) in
  (int_ord w a b = OLt <-> (x < y)%Z) /\ (int_ord w a b = OGt <-> (x > y)%Z) /\
  (int_ord w a b = OEq <-> uval w a = uval w b) /\ int_ord w a b <> OUn.
Proof.
  intros Hw x y. unfold int_ord. fold x y.
  destruct (Z.compare_spec x y) as [E|E|E]; cbn [ord_of]; repeat split; intros; try discriminate; try lia; try congruence.
  - unfold x, y in E. apply (sval_inj w); auto using uval_lt.
  - exfalso. unfold x, y in E. rewrite H in E. lia.
  - exfalso. unfold x, y in E. rewrite H in E. lia.
Qed.

(* ------------------------------------------------------------------ mask operations, bit by bit *)

Definition bitop (mop : N) (x m : bool) : bool :=
  if mop =? c_NQF_MASK_OP_AND then x && m
  else if mop =? c_NQF_MASK_OP_OR then x || m
  else if mop =? c_NQF_MASK_OP_XOR then xorb x m
  else if mop =? c_NQF_MASK_OP_NAND then negb (x && m)
  else if mop =? c_NQF_MASK_OP_NOR then negb (x || m)
  else if mop =? c_NQF_MASK_OP_XNOR then negb (xorb x m)
  else x.

Lemma ones_testbit w i : i < w -> N.testbit (2 ^ w - 1) i = true.
Proof.
  intros H. replace (2 ^ w - 1) with (N.ones w) by (rewrite N.ones_equiv; lia).
  apply N.ones_spec_low. exact H.
Qed.

(* every bit of the result is the documented boolean operation on the corresponding bits (an unknown mask
   operator leaves the value alone, like NQF_MASK_OP_NONE) *)
Theorem mask_bits w mop v m i : i < w ->
  N.testbit (mask_u w mop v m) i = bitop mop (N.testbit v i) (N.testbit m i).
Proof.
  intros Hi. unfold mask_u, bitop.
  repeat match goal with
         | |- context [if ?c then _ else _] => destruct c
         end;
  rewrite ?N.lxor_spec, ?N.land_spec, ?N.lor_spec, ?ones_testbit by exact Hi;
  destruct (N.testbit v i); destruct (N.testbit m i); reflexivity.
Qed.

Lemma testbit_high_lt a w : a < 2 ^ w -> forall i, w <= i -> N.testbit a i = false.
Proof.
  intros Ha i Hi. destruct (N.eq_dec a 0) as [->|Hn]; [apply N.bits_0|].
  apply N.bits_above_log2. apply N.log2_lt_pow2; [lia|].
  apply N.lt_le_trans with (2 ^ w); [exact Ha|]. apply N.pow_le_mono_r; [discriminate|exact Hi].
Qed.

Lemma lt_pow2_of_bits a w : (forall i, w <= i -> N.testbit a i = false) -> a < 2 ^ w.
Proof.
  intros H. destruct (N.eq_dec a 0) as [->|Hn]; [apply pow2_pos|].
  apply N.log2_lt_pow2; [lia|].
  destruct (N.lt_ge_cases (N.log2 a) w) as [L|L]; [exact L|].
  specialize (H (N.log2 a) L). rewrite N.bit_log2 in H by exact Hn. discriminate.
Qed.

Theorem mask_width w mop v m : v < 2 ^ w -> m < 2 ^ w -> mask_u w mop v m < 2 ^ w.
Proof.
  intros Hv Hm. apply lt_pow2_of_bits. intros i Hi.
  assert (Ho : N.testbit (2 ^ w - 1) i = false).
  { replace (2 ^ w - 1) with (N.ones w) by (rewrite N.ones_equiv; lia). apply N.ones_spec_high. exact Hi. }
  pose proof (testbit_high_lt v w Hv i Hi) as Bv. pose proof (testbit_high_lt m w Hm i Hi) as Bm.
  unfold mask_u.
  repeat match goal with
         | |- context [if ?c then _ else _] => destruct c
         end;
  rewrite ?N.lxor_spec, ?N.land_spec, ?N.lor_spec, ?Ho, ?Bv, ?Bm; reflexivity.
Qed.

(* ------------------------------------------------------------------ IEEE-754 facts of the float comparison *)

Section Ieee.
  Variables eb mb : N.

  (* a NaN operand makes the pair unordered, whatever the other operand is (a NaN included) *)
  Theorem nan_unordered_l x y : f_is_nan eb mb x = true -> f_ord eb mb x y = OUn.
  Proof. intros H. unfold f_ord. rewrite H. reflexivity. Qed.
  Theorem nan_unordered_r x y : f_is_nan eb mb y = true -> f_ord eb mb x y = OUn.
  Proof. intros H. unfold f_ord. rewrite H, orb_true_r. reflexivity. Qed.

  Theorem no_nan_ordered x y : f_is_nan eb mb x = false -> f_is_nan eb mb y = false -> f_ord eb mb x y <> OUn.
  Proof. intros Hx Hy. unfold f_ord. rewrite Hx, Hy. cbn [orb]. destruct (Z.compare _ _); discriminate. Qed.

  (* the key of a zero of either sign is 0: -0 = +0 *)
  Definition sign_bit : N := 2 ^ (eb + mb).
  Lemma key_pos_zero : f_key eb mb 0 = 0%Z.
  Proof. unfold f_key. rewrite (N.mod_0_l (2 ^ (eb + mb))), (N.div_0_l (2 ^ (eb + mb))) by apply p2nz. reflexivity. Qed.
  Lemma key_neg_zero : f_key eb mb sign_bit = 0%Z.
  Proof. unfold f_key, sign_bit. rewrite N.mod_same, N.div_same by apply p2nz. reflexivity. Qed.
End Ieee.

Theorem nan_compare_table eb mb x y :
  f_is_nan eb mb x = true \/ f_is_nan eb mb y = true ->
  forall op, ord_test op (f_ord eb mb x y) = (op =? c_NQF_OP_NOT_EQUAL_TO).
Proof.
  intros [H|H] op; [rewrite nan_unordered_l by exact H|rewrite nan_unordered_r by exact H]; apply unordered_table.
Qed.

Lemma key_bound eb mb x : (Z.abs (f_key eb mb x) < Z.of_N (2 ^ (eb + mb)))%Z.
Proof.
  unfold f_key. cbv zeta. pose proof (N.mod_lt x (2 ^ (eb + mb)) (p2nz _)) as H.
  set (P := 2 ^ (eb + mb)) in *. set (mag := x mod P) in *. clearbody mag. clearbody P.
  destruct ((x / P) mod 2 =? 0); lia.
Qed.

(* +infinity: exponent field all ones, mantissa 0; above every other non-NaN value (pos_inf_is_top) *)
Definition pos_inf (eb mb : N) : N := (2 ^ eb - 1) * 2 ^ mb.

(* the magnitude of a bit pattern is its exponent field times 2^mb plus its mantissa field *)
Lemma mag_fields eb mb x :
  x mod 2 ^ (eb + mb) = ((x / 2 ^ mb) mod 2 ^ eb) * 2 ^ mb + x mod 2 ^ mb.
Proof. rewrite N.add_comm, N.pow_add_r, N.mod_mul_r by apply p2nz. lia. Qed.

Lemma not_nan_mag_le_inf eb mb x :
  f_is_nan eb mb x = false -> x mod 2 ^ (eb + mb) <= pos_inf eb mb.
Proof.
  intros H. rewrite mag_fields. unfold f_is_nan in H. unfold pos_inf.
  pose proof (N.mod_lt (x / 2 ^ mb) (2 ^ eb) (p2nz _)) as He. pose proof (N.mod_lt x (2 ^ mb) (p2nz _)) as Hm.
  set (e := (x / 2 ^ mb) mod 2 ^ eb) in *. set (m := x mod 2 ^ mb) in *. set (P := 2 ^ mb) in *. set (E := 2 ^ eb) in *.
  destruct (e =? E - 1) eqn:Eq; cbn [andb] in H.
  - apply N.eqb_eq in Eq. apply negb_false_iff, N.eqb_eq in H. rewrite Eq, H. lia.
  - apply N.eqb_neq in Eq. nia.
Qed.

Section Inf.
  Variables eb mb : N.
  Let P := 2 ^ mb.
  Let E := 2 ^ eb.

  Lemma pos_inf_facts :
    f_is_nan eb mb (pos_inf eb mb) = false /\ f_key eb mb (pos_inf eb mb) = Z.of_N (pos_inf eb mb).
  Proof.
    assert (HP : P <> 0) by apply p2nz. assert (HE : E <> 0) by apply p2nz.
    assert (Hpow : 2 ^ (eb + mb) = E * P) by (unfold E, P; rewrite N.pow_add_r; reflexivity).
    unfold pos_inf. fold P E.
    assert (Hlt : (E - 1) * P < E * P) by nia.
    split.
    - unfold f_is_nan. fold P E. rewrite N.div_mul by exact HP. rewrite N.mod_mul by exact HP.
      rewrite N.eqb_refl. apply andb_false_r.
    - unfold f_key. cbv zeta. rewrite Hpow. rewrite (N.mod_small _ _ Hlt), (N.div_small _ _ Hlt). reflexivity.
  Qed.

  Theorem pos_inf_is_top x : f_is_nan eb mb x = false -> f_ord eb mb x (pos_inf eb mb) <> OGt /\ f_ord eb mb x (pos_inf eb mb) <> OUn.
  Proof.
    intros Hx. destruct pos_inf_facts as [Hn Hk].
    unfold f_ord. rewrite Hx, Hn. cbn [orb]. rewrite Hk.
    pose proof (not_nan_mag_le_inf eb mb x Hx) as Hle.
    assert (Hkx : (f_key eb mb x <= Z.of_N (x mod 2 ^ (eb + mb)))%Z).
    { unfold f_key. cbv zeta. generalize (x mod 2 ^ (eb + mb)). intros mag.
      destruct ((x / 2 ^ (eb + mb)) mod 2 =? 0); lia. }
    destruct (Z.compare_spec (f_key eb mb x) (Z.of_N (pos_inf eb mb))); cbn [ord_of]; split; try discriminate. lia.
  Qed.
End Inf.

(* ------------------------------------------------------------------ the missing-data rule *)

(* "if the specified item does not exist in the matched Message, this QueryFilter will act as if the Message contained
   the specified assumedValue"; without an assumed value it does not match *)
Theorem num_matches_rule t m name idx op mop val msk def :
  num_matches t m name idx op mop val msk def =
  match find_fix m name (nt_tc t) idx with
  | Some v => num_test t op (num_apply_mask t mop v msk) val
  | None => match def with
            | Some d => num_test t op (num_apply_mask t mop d msk) val
            | None => false
            end
  end.
Proof. unfold num_matches, or_else. destruct (find_fix m name (nt_tc t) idx); [reflexivity|]. destruct def; reflexivity. Qed.

Theorem str_matches_rule smatch m name idx op val def :
  str_matches smatch m name idx op val def =
  match find_string m name idx with
  | Some s => str_op smatch op val s
  | None => match def with Some d => str_op smatch op val d | None => false end
  end.
Proof. unfold str_matches, or_else. destruct (find_string m name idx); [reflexivity|]. destruct def; reflexivity. Qed.

(* what "the indexed item of the named field" is: the field must exist under that name with exactly the filter's
   type code, and hold at least index+1 items *)
Lemma find_item_spec m name tc idx :
  (tc =? c_B_ANY_TYPE) = false ->
  find_item m name tc idx =
  match flookup name (msg_fields m) with
  | Some (tc', r) => if tc =? tc' then match repr_nth idx r with Some i => Some (tc', i) | None => None end else None
  | None => None
  end.
Proof.
  intros Hany. unfold find_item, get_field. rewrite Hany.
  destruct (flookup name (msg_fields m)) as [[tc' r]|]; [|reflexivity]. destruct (tc =? tc'); reflexivity.
Qed.

Theorem find_fix_spec t m name idx :
  find_fix m name (nt_tc t) idx =
  match flookup name (msg_fields m) with
  | Some (tc', r) =>
      if nt_tc t =? tc' then match repr_nth idx r with Some (IFix bs) => Some bs | _ => None end else None
  | None => None
  end.
Proof.
  assert (Hany : (nt_tc t =? c_B_ANY_TYPE) = false) by (destruct t; reflexivity).
  unfold find_fix, find_data. rewrite find_item_spec, Hany by exact Hany.
  destruct (flookup name (msg_fields m)) as [[tc' r]|]; [|reflexivity].
  destruct (nt_tc t =? tc'); [|reflexivity]. destruct (repr_nth idx r) as [i|]; [|reflexivity].
  destruct t, i; reflexivity.
Qed.

Theorem find_string_spec m name idx :
  find_string m name idx =
  match flookup name (msg_fields m) with
  | Some (tc', r) =>
      if c_B_STRING_TYPE =? tc' then match repr_nth idx r with Some (IStr s) => Some s | _ => None end else None
  | None => None
  end.
Proof.
  unfold find_string. rewrite find_item_spec by reflexivity.
  destruct (flookup name (msg_fields m)) as [[tc' r]|]; [|reflexivity].
  destruct (c_B_STRING_TYPE =? tc'); [|reflexivity]. destruct (repr_nth idx r) as [[]|]; reflexivity.
Qed.

(* ValueExistsQueryFilter with a specific fixed-size or String type code: "a field of that name and type holds at
   least index+1 items" *)
Theorem exists_spec_fixed m name tc idx :
  (tc =? c_B_ANY_TYPE) = false ->
  ((tc =? c_B_STRING_TYPE) || (0 <? elem_size (ftype_of_tc tc))) = true ->
  exists_data m name tc idx =
  match flookup name (msg_fields m) with
  | Some (tc', r) => (tc =? tc') && match repr_nth idx r with Some _ => true | None => false end
  | None => false
  end.
Proof.
  intros Hany Hfix. unfold exists_data, find_data. rewrite find_item_spec, Hany by exact Hany.
  destruct (flookup name (msg_fields m)) as [[tc' r]|]; [|reflexivity].
  destruct (tc =? tc'); [|reflexivity]. destruct (repr_nth idx r) as [i|]; [|reflexivity].
  unfold find_data_tc. destruct (tc =? c_B_STRING_TYPE); [destruct i; reflexivity|].
  cbn [orb] in Hfix. rewrite Hfix. destruct i; reflexivity.
Qed.

(* ... and with B_ANY_TYPE: a field of that name, of any (proper) type, holds the item *)
Theorem exists_spec_any m name idx :
  exists_data m name c_B_ANY_TYPE idx =
  match flookup name (msg_fields m) with
  | Some (tc', r) =>
      match repr_nth idx r with
      | Some i => negb (tc' =? c_B_ANY_TYPE) && match find_data_tc tc' i with Some _ => true | None => false end
      | None => false
      end
  | None => false
  end.
Proof.
  unfold exists_data, find_data, find_item, get_field.
  destruct (flookup name (msg_fields m)) as [[tc' r]|]; [|reflexivity].
  rewrite N.eqb_refl. cbn [orb].
  destruct (repr_nth idx r) as [i|]; [|reflexivity].
  destruct (tc' =? c_B_ANY_TYPE); reflexivity.
Qed.
