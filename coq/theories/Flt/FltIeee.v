(* Flt/FltIeee.v -- the float comparison of the filter model IS the IEEE-754 comparison (C14): on every pair of bit
   patterns, [f_ord] (NaN test on the exponent/mantissa fields + order of the signed magnitudes) agrees with Flocq's
   [Bcompare] on the binary floats those bit patterns denote ([binary_float_of_bits]): unordered exactly when a NaN
   is involved, -0 = +0, infinities at the ends, everything else by value. *)
From Coq Require Import ZArith NArith Bool Lia List.
From Flocq Require Import IEEE754.Binary IEEE754.Bits.
From Muscle Require Import Flt.FltModel Flt.FltNumProofs.
Local Open Scope Z_scope.

(* Bcompare (through B2BSN / B2SF / SpecFloat.SFcompare), on the proof-free representation *)
Definition ffc (x y : full_float) : option comparison :=
  match x, y with
  | F754_nan _ _, _ | _, F754_nan _ _ => None
  | F754_infinity s1, F754_infinity s2 =>
      Some match s1, s2 with true, true => Eq | false, false => Eq | true, false => Lt | false, true => Gt end
  | F754_infinity s, _ => Some (if s then Lt else Gt)
  | _, F754_infinity s => Some (if s then Gt else Lt)
  | F754_finite s _ _, F754_zero _ => Some (if s then Lt else Gt)
  | F754_zero _, F754_finite s _ _ => Some (if s then Gt else Lt)
  | F754_zero _, F754_zero _ => Some Eq
  | F754_finite s1 m1 e1, F754_finite s2 m2 e2 =>
      Some match s1, s2 with
           | true, false => Lt
           | false, true => Gt
           | false, false => match Z.compare e1 e2 with Lt => Lt | Gt => Gt | Eq => Pos.compare m1 m2 end
           | true, true => match Z.compare e1 e2 with Lt => Gt | Gt => Lt | Eq => CompOpp (Pos.compare m1 m2) end
           end
  end.

Lemma Bcompare_FF2B prec emax x y Hx Hy :
  Bcompare prec emax (FF2B prec emax x Hx) (FF2B prec emax y Hy) = ffc x y.
Proof. destruct x, y; reflexivity. Qed.

Section Rank.
  Variables mw ew : Z.
  Hypothesis Hmw : 0 < mw.
  Hypothesis Hew : 0 < ew.
  Let emin := 3 - 2 ^ (ew - 1) - (mw + 1).
  Let P := 2 ^ mw.
  Let INF := (2 ^ ew - 1) * P.

  Definition sgn (s : bool) (z : Z) : Z := if s then - z else z.

  Definition rank (f : full_float) : Z :=
    match f with
    | F754_zero _ => 0
    | F754_infinity s => sgn s INF
    | F754_finite s m e => sgn s ((e - emin) * P + Zpos m)
    | F754_nan _ _ => 0
    end.

  Definition canon (f : full_float) : Prop :=
    match f with
    | F754_finite _ m e => emin <= e /\ e - emin <= 2 ^ ew - 3 /\ Zpos m < 2 * P /\ (emin < e -> P <= Zpos m)
    | _ => True
    end.

  Definition not_nan (f : full_float) : Prop := match f with F754_nan _ _ => False | _ => True end.

  Lemma P_pos : 0 < P.
  Proof. unfold P. apply Z.pow_pos_nonneg; lia. Qed.

  Lemma two_ew : 2 <= 2 ^ ew.
  Proof. change 2 with (2 ^ 1) at 1. apply Z.pow_le_mono_r; lia. Qed.

  Lemma ffc_rank x y : canon x -> canon y -> not_nan x -> not_nan y -> ffc x y = Some (Z.compare (rank x) (rank y)).
  Proof.
    pose proof P_pos as HP. pose proof two_ew as H2.
    assert (HINF : 0 < INF) by (unfold INF; nia).
    destruct x as [sx|sx|sx px|sx mx ex]; destruct y as [sy|sy|sy py|sy my ey];
      cbn [canon not_nan ffc rank]; intros Cx Cy Nx Ny; try tauto; f_equal; symmetry.
    - destruct sy; cbn [sgn]; [apply Z.compare_gt_iff|apply Z.compare_lt_iff]; lia.
    - destruct Cy as [C1 [C2 [C3 C4]]]. destruct sy; cbn [sgn]; [apply Z.compare_gt_iff|apply Z.compare_lt_iff]; nia.
    - destruct sx; cbn [sgn]; [apply Z.compare_lt_iff|apply Z.compare_gt_iff]; lia.
    - destruct sx, sy; cbn [sgn]; try apply Z.compare_refl; [apply Z.compare_lt_iff|apply Z.compare_gt_iff]; lia.
    - destruct Cy as [C1 [C2 [C3 C4]]].
      assert (Hr : (ey - emin) * P + Z.pos my < INF) by (unfold INF; nia).
      destruct sx; [apply Z.compare_lt_iff|apply Z.compare_gt_iff]; destruct sy; cbn [sgn]; nia.
    - destruct Cx as [C1 [C2 [C3 C4]]]. destruct sx; cbn [sgn]; [apply Z.compare_lt_iff|apply Z.compare_gt_iff]; nia.
    - destruct Cx as [C1 [C2 [C3 C4]]].
      assert (Hr : (ex - emin) * P + Z.pos mx < INF) by (unfold INF; nia).
      destruct sy; [apply Z.compare_gt_iff|apply Z.compare_lt_iff]; destruct sx; cbn [sgn]; nia.
    - destruct Cx as [X1 [X2 [X3 X4]]]. destruct Cy as [Y1 [Y2 [Y3 Y4]]].
      assert (Hpos : forall a b, Pos.compare a b = Z.compare (Z.pos a) (Z.pos b)) by reflexivity.
      destruct sx, sy; cbn [sgn].
      + (* both negative *)
        rewrite Z.compare_opp.
        destruct (Z.compare_spec ex ey) as [E|E|E].
        * subst ey. rewrite Hpos. rewrite <- Z.compare_antisym.
          destruct (Z.compare_spec (Z.pos my) (Z.pos mx)) as [F|F|F];
            [apply Z.compare_eq_iff|apply Z.compare_lt_iff|apply Z.compare_gt_iff]; lia.
        * apply Z.compare_gt_iff. assert (P <= Z.pos my) by (apply Y4; lia). nia.
        * apply Z.compare_lt_iff. assert (P <= Z.pos mx) by (apply X4; lia). nia.
      + apply Z.compare_lt_iff. nia.
      + apply Z.compare_gt_iff. nia.
      + destruct (Z.compare_spec ex ey) as [E|E|E].
        * subst ey. rewrite Hpos.
          destruct (Z.compare_spec (Z.pos mx) (Z.pos my)) as [F|F|F];
            [apply Z.compare_eq_iff|apply Z.compare_lt_iff|apply Z.compare_gt_iff]; lia.
        * apply Z.compare_lt_iff. assert (P <= Z.pos my) by (apply Y4; lia). nia.
        * apply Z.compare_gt_iff. assert (P <= Z.pos mx) by (apply X4; lia). nia.
  Qed.
End Rank.

Section Link.
  Variables eb mb : N.
  Let mw := Z.of_N mb.
  Let ew := Z.of_N eb.
  Hypothesis Hmw : 0 < mw.
  Hypothesis Hew : 0 < ew.
  Hypothesis Hmax : mw + 1 < 2 ^ (ew - 1).         (* prec < emax: true of every IEEE interchange format *)

  Let emin := 3 - 2 ^ (ew - 1) - (mw + 1).
  Let P := 2 ^ mw.

  Lemma ew_ge_3 : 3 <= ew.
  Proof.
    destruct (Z_lt_le_dec ew 3) as [H|H]; [|exact H]. exfalso.
    assert (Hc : ew = 1 \/ ew = 2) by lia. destruct Hc as [Hc|Hc]; rewrite Hc in Hmax; cbn in Hmax; lia.
  Qed.

  Lemma of_N_pow2 n : Z.of_N (2 ^ n)%N = 2 ^ Z.of_N n.
  Proof. rewrite N2Z.inj_pow. reflexivity. Qed.

  (* what binary_float_of_bits_aux makes of a bit pattern, against the model's reading of the same pattern *)
  Lemma aux_spec (x : N) :
    (x < 2 ^ (1 + eb + mb))%N ->
    let f := binary_float_of_bits_aux mw ew (Z.of_N x) in
    canon mw ew f /\
    (f_is_nan eb mb x = true -> ~ not_nan f) /\
    (f_is_nan eb mb x = false -> not_nan f /\ rank mw ew f = f_key eb mb x).
  Proof.
    intros Hx. pose proof ew_ge_3 as Hew3.
    assert (HP : 0 < P) by (unfold P; apply Z.pow_pos_nonneg; lia).
    assert (HE8 : 8 <= 2 ^ ew) by (change 8 with (2 ^ 3); apply Z.pow_le_mono_r; lia).
    set (mN := (x mod 2 ^ mb)%N). set (eN := ((x / 2 ^ mb) mod 2 ^ eb)%N).
    assert (HmN : (mN < 2 ^ mb)%N) by (apply N.mod_lt, p2nz).
    assert (HeN : (eN < 2 ^ eb)%N) by (apply N.mod_lt, p2nz).
    pose proof (mag_fields eb mb x) as Hmag. fold mN eN in Hmag.
    (* the three fields on the Z side *)
    assert (Hm : Z.of_N x mod 2 ^ mw = Z.of_N mN).
    { unfold mN, mw. rewrite N2Z.inj_mod, of_N_pow2. reflexivity. }
    assert (He : (Z.of_N x / 2 ^ mw) mod 2 ^ ew = Z.of_N eN).
    { unfold eN, mw, ew. rewrite N2Z.inj_mod, N2Z.inj_div, !of_N_pow2. reflexivity. }
    assert (HmZ : Z.of_N mN < P) by (unfold P, mw; rewrite <- of_N_pow2; lia).
    assert (HeZ : Z.of_N eN < 2 ^ ew) by (unfold ew; rewrite <- of_N_pow2; lia).
    (* the sign *)
    set (S := (2 ^ (eb + mb))%N).
    assert (HS : Z.of_N S = 2 ^ mw * 2 ^ ew).
    { unfold S, mw, ew. rewrite of_N_pow2, N2Z.inj_add, Z.pow_add_r by lia. lia. }
    assert (Hx2 : (x < 2 * S)%N).
    { unfold S. replace (1 + eb + mb)%N with (N.succ (eb + mb)) in Hx by lia. rewrite N.pow_succ_r' in Hx. exact Hx. }
    assert (HSnz : S <> 0%N) by apply p2nz.
    assert (Hsign : ((x / S) mod 2 =? 0)%N = negb (Zle_bool (2 ^ mw * 2 ^ ew) (Z.of_N x))).
    { rewrite <- HS. destruct (N.lt_ge_cases x S) as [L|L].
      - rewrite N.div_small by exact L. cbn. symmetry. apply negb_true_iff. apply Z.leb_gt. lia.
      - assert (Hq : (x / S = 1)%N).
        { apply N.le_antisymm.
          - apply N.lt_succ_r. apply N.div_lt_upper_bound; [exact HSnz|lia].
          - apply N.div_le_lower_bound; [exact HSnz|lia]. }
        rewrite Hq. cbn. symmetry. apply negb_false_iff. apply Z.leb_le. lia. }
    (* the model's key in terms of the fields *)
    assert (Hkey : f_key eb mb x = sgn (Zle_bool (2 ^ mw * 2 ^ ew) (Z.of_N x)) (Z.of_N eN * P + Z.of_N mN)).
    { unfold f_key. cbv zeta. rewrite Hmag. fold S. rewrite Hsign.
      destruct (Zle_bool (2 ^ mw * 2 ^ ew) (Z.of_N x)); cbn [negb sgn];
        rewrite N2Z.inj_add, N2Z.inj_mul, of_N_pow2; reflexivity. }
    assert (Hnan : f_is_nan eb mb x = ((eN =? 2 ^ eb - 1)%N && negb (mN =? 0)%N)) by reflexivity.
    assert (Hall1 : Z.of_N (2 ^ eb - 1)%N = 2 ^ ew - 1).
    { rewrite N2Z.inj_sub by (pose proof (pow2_pos eb); lia). rewrite of_N_pow2. reflexivity. }
    cbv zeta. unfold binary_float_of_bits_aux, split_bits, SpecFloat.emin. rewrite Hm, He.
    set (s := Zle_bool (2 ^ mw * 2 ^ ew) (Z.of_N x)) in *.
    destruct (Zeq_bool (Z.of_N eN) 0) eqn:E0.
    - (* exponent field 0: zero or subnormal *)
      apply Zeq_bool_eq in E0. assert (EN0 : eN = 0%N) by (clear - E0; lia).
      assert (Hnn : f_is_nan eb mb x = false).
      { rewrite Hnan, EN0. replace (0 =? 2 ^ eb - 1)%N with false; [reflexivity|].
        symmetry. apply N.eqb_neq. intros C. apply (f_equal Z.of_N) in C. rewrite Hall1 in C. cbn in C. lia. }
      destruct (Z.of_N mN) as [|p|p] eqn:EM.
      + split; [exact I|]. split; [rewrite Hnn; discriminate|]. intros _. split; [exact I|].
        rewrite Hkey, E0. cbn [rank]. destruct s; reflexivity.
      + split.
        * cbn [canon]. fold emin P. clear - HE8 EM HmZ HP. repeat split; try lia.
        * split; [rewrite Hnn; discriminate|]. intros _. split; [exact I|].
          rewrite Hkey, E0. cbn [rank]. fold emin P. f_equal. lia.
      + lia.
    - apply Zeq_bool_neq in E0.
      destruct (Zeq_bool (Z.of_N eN) (2 ^ ew - 1)) eqn:E1.
      + (* exponent field all ones: infinity or NaN *)
        apply Zeq_bool_eq in E1.
        assert (EN1 : (eN =? 2 ^ eb - 1)%N = true) by (apply N.eqb_eq; clear - E1 Hall1; lia).
        destruct (Z.of_N mN) as [|p|p] eqn:EM.
        * assert (M0 : mN = 0%N) by (clear - EM; lia).
          assert (Hnn : f_is_nan eb mb x = false) by (rewrite Hnan, EN1, M0; reflexivity).
          split; [exact I|]. split; [rewrite Hnn; discriminate|]. intros _. split; [exact I|].
          rewrite Hkey, E1. cbn [rank]. fold P. f_equal. lia.
        * assert (M0 : (mN =? 0)%N = false) by (apply N.eqb_neq; clear - EM; lia).
          split; [exact I|]. split; [intros _ C; exact C|]. rewrite Hnan, EN1, M0. discriminate.
        * lia.
      + (* a normal number *)
        apply Zeq_bool_neq in E1.
        assert (Hnn : f_is_nan eb mb x = false).
        { rewrite Hnan. replace (eN =? 2 ^ eb - 1)%N with false; [reflexivity|]. symmetry. apply N.eqb_neq. lia. }
        destruct (Z.of_N mN + 2 ^ mw) as [|px|px] eqn:EP; fold P in EP; try lia.
        split.
        * cbn [canon]. fold emin P. clear - HE8 EP HmZ HeZ HP E0 E1. repeat split; try lia.
        * split; [rewrite Hnn; discriminate|]. intros _. split; [exact I|].
          rewrite Hkey. cbn [rank]. fold emin P. f_equal. lia.
  Qed.

  (* the theorem: on any two bit patterns of the format, the model's comparison is Flocq's Bcompare on the floats
     those patterns denote.  [binary_float_of_bits mw ew _ _ _ z] is by definition
     [FF2B _ _ (binary_float_of_bits_aux mw ew z) V] for Flocq's own validity proof V (whose proof uses the real
     numbers and their axioms); the statement here holds for every validity proof, and is axiom-free *)
  Theorem f_ord_is_Bcompare (x y : N) Vx Vy :
    (x < 2 ^ (1 + eb + mb))%N -> (y < 2 ^ (1 + eb + mb))%N ->
    Bcompare (mw + 1) (2 ^ (ew - 1))
      (FF2B (mw + 1) (2 ^ (ew - 1)) (binary_float_of_bits_aux mw ew (Z.of_N x)) Vx)
      (FF2B (mw + 1) (2 ^ (ew - 1)) (binary_float_of_bits_aux mw ew (Z.of_N y)) Vy)
    = match f_ord eb mb x y with OLt => Some Lt | OEq => Some Eq | OGt => Some Gt | OUn => None end.
  Proof.
    intros Hx Hy. rewrite Bcompare_FF2B.
    destruct (aux_spec x Hx) as [Cx [Nx1 Nx2]]. destruct (aux_spec y Hy) as [Cy [Ny1 Ny2]].
    cbv zeta in *. unfold f_ord.
    destruct (f_is_nan eb mb x) eqn:Ex.
    - specialize (Nx1 eq_refl). cbn [orb].
      destruct (binary_float_of_bits_aux mw ew (Z.of_N x)); cbn [not_nan] in Nx1; try tauto; reflexivity.
    - destruct (f_is_nan eb mb y) eqn:Ey.
      + specialize (Ny1 eq_refl). cbn [orb].
        destruct (binary_float_of_bits_aux mw ew (Z.of_N y)); cbn [not_nan] in Ny1; try tauto;
          destruct (binary_float_of_bits_aux mw ew (Z.of_N x)); reflexivity.
      + cbn [orb]. destruct (Nx2 eq_refl) as [Ax Rx]. destruct (Ny2 eq_refl) as [Ay Ry].
        rewrite (ffc_rank mw ew Hmw Hew _ _ Cx Cy Ax Ay), Rx, Ry.
        destruct (Z.compare (f_key eb mb x) (f_key eb mb y)); reflexivity.
  Qed.
End Link.

(* IEEE-754 binary32 and binary64: b32_of_bits z = FF2B 24 128 (binary_float_of_bits_aux 23 8 z) _ ,
   b64_of_bits z = FF2B 53 1024 (binary_float_of_bits_aux 52 11 z) _ *)
Theorem f32_ord_is_ieee (x y : N) Vx Vy :
  (x < 2 ^ 32)%N -> (y < 2 ^ 32)%N ->
  Bcompare 24 128 (FF2B 24 128 (binary_float_of_bits_aux 23 8 (Z.of_N x)) Vx)
                  (FF2B 24 128 (binary_float_of_bits_aux 23 8 (Z.of_N y)) Vy)
  = match f_ord 8 23 x y with OLt => Some Lt | OEq => Some Eq | OGt => Some Gt | OUn => None end.
Proof. intros Hx Hy. apply (f_ord_is_Bcompare 8 23 eq_refl eq_refl eq_refl x y Vx Vy Hx Hy). Qed.

Theorem f64_ord_is_ieee (x y : N) Vx Vy :
  (x < 2 ^ 64)%N -> (y < 2 ^ 64)%N ->
  Bcompare 53 1024 (FF2B 53 1024 (binary_float_of_bits_aux 52 11 (Z.of_N x)) Vx)
                   (FF2B 53 1024 (binary_float_of_bits_aux 52 11 (Z.of_N y)) Vy)
  = match f_ord 11 52 x y with OLt => Some Lt | OEq => Some Eq | OGt => Some Gt | OUn => None end.
Proof. intros Hx Hy. apply (f_ord_is_Bcompare 11 52 eq_refl eq_refl eq_refl x y Vx Vy Hx Hy). Qed.
