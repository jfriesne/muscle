(* Flt/FltParseProofs.v -- the expression lexer/parser model (C14): every string is handled (the fuel the model
   gives its loops always suffices: no string makes the lexer or the parser run on), a word of letters is never cut
   by a keyword inside it (F40), and "name:index|default" denotes the field `name` (F39). *)
From Coq Require Import List NArith ZArith Bool Strings.Byte Lia.
From Muscle Require Import Gen.Consts Msg.MsgDefs Msg.MsgModel Flt.FltModel Flt.FltParse.
Import ListNotations.
Local Open Scope N_scope.

(* ------------------------------------------------------------------ the lexer always advances *)

Lemma first_match_pos tbl s i n : first_match tbl s = Some (i, n) -> 0 < n.
Proof.
  induction tbl as [|[j ts] t IH]; cbn [first_match]; [discriminate|].
  destruct ((0 <? len ts) && ci_prefix ts s) eqn:E.
  - intros H. injection H as _ <-. apply andb_true_iff in E. destruct E as [E _]. apply N.ltb_lt. exact E.
  - exact IH.
Qed.

Lemma match_token_pos s i n : match_token s = Some (i, n) -> 0 < n.
Proof.
  unfold match_token. destruct (first_match tok_table_desc s) as [[j m]|] eqn:E.
  - intros H. injection H as _ <-. eapply first_match_pos. exact E.
  - apply first_match_pos.
Qed.

Lemma length_dropN_le {A} (l : list A) : forall k, (length (dropN k l) <= length l)%nat.
Proof.
  induction l as [|y t IH]; intros k; cbn [dropN length]; [lia|].
  destruct (k =? 0); cbn [length]; [lia|]. specialize (IH (N.pred k)). lia.
Qed.

Lemma length_dropN_pos {A} n (l : list A) : 0 < n -> l <> [] -> (length (dropN n l) < length l)%nat.
Proof.
  intros Hn Hl. destruct l as [|x t]; [congruence|]. cbn [dropN].
  destruct (n =? 0) eqn:E; [apply N.eqb_eq in E; lia|].
  cbn [length]. pose proof (length_dropN_le t (N.pred n)). lia.
Qed.

Lemma split_at_quote_length s a r : split_at_quote s = Some (a, r) -> (length r < length s)%nat.
Proof.
  revert a r. induction s as [|c t IH]; intros a r; cbn [split_at_quote]; [discriminate|].
  destruct (c =? 34).
  - intros H. injection H as _ <-. cbn [length]. lia.
  - destruct (split_at_quote t) as [[a' r']|]; [|discriminate].
    intros H. injection H as _ <-. specialize (IH a' r' eq_refl). cbn [length]. lia.
Qed.

Lemma scan_word_length t : (length (snd (scan_word t)) <= length t)%nat /\
                           (length (fst (scan_word t)) + length (snd (scan_word t)) = length t)%nat.
Proof.
  induction t as [|c t IH]; cbn [scan_word]; [cbn; lia|].
  destruct (is_cspace c || (negb (is_alpha c) && match match_token (c :: t) with Some _ => true | None => false end)).
  - cbn [fst snd length]. lia.
  - destruct (scan_word t) as [w r]. cbn [fst snd length] in *. lia.
Qed.

(* every token the lexer delivers consumes at least one character *)
Theorem lex_next_advances e t rest : lex_next e = LTok t rest -> (length rest < length e)%nat.
Proof.
  revert t rest. induction e as [|c e IH]; intros t rest; cbn [lex_next]; [discriminate|].
  destruct (match_token (c :: e)) as [[k n]|] eqn:Em.
  - intros H. injection H as _ <-.
    pose proof (length_dropN_pos n (c :: e) (match_token_pos _ _ _ Em) ltac:(discriminate)) as Hd.
    cbn [dropN] in Hd. exact Hd.
  - destruct (c =? 34).
    + destruct (split_at_quote e) as [[txt r]|] eqn:Eq; [|discriminate].
      intros H. injection H as _ <-. apply split_at_quote_length in Eq. cbn [length]. lia.
    + destruct ((c =? 32) || (c =? 9) || (c =? 13) || (c =? 10)).
      * intros H. specialize (IH t rest H). cbn [length]. lia.
      * pose proof (scan_word_length (c :: e)) as [_ Hs].
        destruct (scan_word (c :: e)) as [w r]. destruct w as [|x w]; [discriminate|].
        intros H. injection H as _ <-. cbn [fst snd length] in *. lia.
Qed.

(* so the fuel lex_all is given (one more than the number of characters) is never the reason it stops *)
Theorem lex_all_fuel_adequate : forall e f1 f2,
  (length e < f1)%nat -> (length e < f2)%nat -> lex_all f1 e = lex_all f2 e.
Proof.
  intros e. remember (length e) as n eqn:Hn. revert e Hn.
  induction n as [n IH] using lt_wf_ind. intros e Hn f1 f2 H1 H2.
  destruct f1 as [|f1]; [lia|]. destruct f2 as [|f2]; [lia|]. cbn [lex_all].
  destruct (lex_next e) as [|t rest|t] eqn:E; try reflexivity.
  apply lex_next_advances in E.
  rewrite (IH (length rest) ltac:(lia) rest eq_refl f1 f2) by lia. reflexivity.
Qed.

(* ------------------------------------------------------------------ F40: a keyword inside a word of letters *)

Lemma not_space_ge c : 33 <= c -> is_cspace c = false.
Proof.
  intros H. unfold is_cspace. apply orb_false_iff. split; [apply N.eqb_neq; lia|].
  apply andb_false_iff. right. apply N.leb_gt. lia.
Qed.

Lemma is_alpha_not_space c : is_alpha c = true -> is_cspace c = false.
Proof.
  intros H. apply not_space_ge. unfold is_alpha in H. rewrite orb_true_iff, !andb_true_iff, !N.leb_le in H. lia.
Qed.

(* a run of letters followed by a blank is ONE user word, whatever keywords ("or ", "is ", "and ", "not ", "what",
   "exists ", ...) its spelling contains *)
Theorem scan_word_letters w rest :
  forallb is_alpha w = true -> scan_word (w ++ 32 :: rest) = (w, 32 :: rest).
Proof.
  induction w as [|c w IH]; intros H.
  - reflexivity.
  - cbn [forallb] in H. apply andb_true_iff in H. destruct H as [Hc Hw].
    cbn [app scan_word]. rewrite (is_alpha_not_space c Hc), Hc. cbn [negb andb orb].
    rewrite (IH Hw). reflexivity.
Qed.

(* ------------------------------------------------------------------ F39: name:index|default *)

Lemma split_last_none c s : mem_char c s = false -> split_last c s = None.
Proof.
  induction s as [|d t IH]; [reflexivity|]. unfold mem_char in *. cbn [existsb split_last].
  intros H. apply orb_false_iff in H. destruct H as [H1 H2]. rewrite (IH H2), H1. reflexivity.
Qed.

Lemma split_last_app c a b : mem_char c b = false -> split_last c (a ++ c :: b) = Some (a, b).
Proof.
  intros Hb. induction a as [|d a IH]; cbn [app split_last].
  - rewrite (split_last_none c b Hb), N.eqb_refl. reflexivity.
  - rewrite IH. reflexivity.
Qed.

Lemma len_eqb0 {A} (l : list A) : l <> [] -> (len l =? 0) = false.
Proof. destruct l; [congruence|]. intros _. apply N.eqb_neq. cbn [len]. lia. Qed.

Section FieldSpec.
  Variable atof : list N -> N.
  Variable d2f : N -> N.

  (* the LAST '|' and then the LAST ':' split the token: `name:digits|default` denotes field [name], item index
     [digits], assumed default [default], whatever characters the name itself is made of *)
  Lemma field_spec_last name digits def :
    name <> [] -> mem_char 58 digits = false -> mem_char 124 def = false -> (0 <= atol digits)%Z ->
    parse_field_name (user_tok (name ++ 58 :: digits ++ 124 :: def) false) true
    = Ok (name, pat 32 (atol digits), Some def).
  Proof.
    intros Hne Hc Hb Hpos. assert (Hnd : name ++ 58 :: digits <> []) by (destruct name; discriminate).
    unfold parse_field_name, user_tok. cbn [tk tq tval]. rewrite N.eqb_refl. cbn [negb orb andb].
    change (name ++ 58 :: digits ++ 124 :: def) with (name ++ (58 :: digits) ++ 124 :: def). rewrite app_assoc.
    rewrite len_eqb0 by (destruct name; discriminate). rewrite (split_last_app 124 _ _ Hb). cbn [bind].
    unfold parse_name_index. cbn [negb andb]. rewrite (len_eqb0 _ Hnd), (split_last_app 58 _ _ Hc), (len_eqb0 _ Hne).
    destruct (atol digits <? 0)%Z eqn:E; [apply Z.ltb_lt in E; lia|]. reflexivity.
  Qed.

  Theorem field_spec_plain name :
    name <> [] -> mem_char 58 name = false -> mem_char 124 name = false ->
    parse_field_name (user_tok name false) true = Ok (name, 0, None).
  Proof.
    intros Hne Hc Hb. unfold parse_field_name, user_tok. cbn [tk tq tval].
    rewrite N.eqb_refl. cbn [negb orb andb].
    rewrite (len_eqb0 _ Hne), (split_last_none 124 name Hb). unfold parse_name_index. cbn [negb andb bind].
    rewrite (len_eqb0 _ Hne), (split_last_none 58 name Hc). reflexivity.
  Qed.

  (* a quoted field name is taken literally *)
  Theorem field_spec_quoted name : parse_field_name (user_tok name true) true = Ok (name, 0, None).
  Proof.
    unfold parse_field_name, user_tok. cbn [tk tq tval]. rewrite N.eqb_refl. cbn [negb orb andb bind].
    unfold parse_name_index. cbn [negb andb]. reflexivity.
  Qed.
End FieldSpec.

(* ------------------------------------------------------------------ the parser's fuel always suffices *)

Section ParserFuel.
  Variable atof : list N -> N.
  Variable d2f : N -> N.
  Notation p_loop := (p_loop atof d2f).
  Notation p_finish := (p_finish atof d2f).

  Definition stuck_tok : ltok := user_tok [] false.
  Definition tail_ok (s : stream) : Prop := snd s = None \/ snd s = Some stuck_tok.

  (* the only token the lexer can be stuck on is the empty user word *)
  Lemma lex_next_stuck e t : lex_next e = LStuck t -> t = stuck_tok.
  Proof.
    induction e as [|c e IH]; cbn [lex_next]; [discriminate|].
    destruct (match_token (c :: e)) as [[k n]|]; [discriminate|].
    destruct (c =? 34); [destruct (split_at_quote e) as [[? ?]|]; discriminate|].
    destruct ((c =? 32) || (c =? 9) || (c =? 13) || (c =? 10)); [exact IH|].
    destruct (scan_word (c :: e)) as [[|x w] r]; [intros H; injection H as <-; reflexivity|discriminate].
  Qed.

  Lemma lex_all_tail_ok fuel e : tail_ok (lex_all fuel e).
  Proof.
    revert e. induction fuel as [|f IH]; intros e; cbn [lex_all]; [left; reflexivity|].
    destruct (lex_next e) as [|t rest|t] eqn:E.
    - left. reflexivity.
    - specialize (IH rest). destruct (lex_all f rest) as [l r]. exact IH.
    - right. cbn [snd]. f_equal. exact (lex_next_stuck e t E).
  Qed.

  Lemma snext_finite t l tl : snext (t :: l, tl) = Some (t, (l, tl)).
  Proof. reflexivity. Qed.

  (* [r] is what is left of [s] after some tokens: never longer, same tail *)
  Definition rest_of (r s : stream) : Prop := (length (fst r) <= length (fst s))%nat /\ snd r = snd s.

  Lemma rest_of_trans r s u : rest_of r s -> rest_of s u -> rest_of r u.
  Proof. unfold rest_of. intros [H1 H2] [H3 H4]. split; [lia|congruence]. Qed.

  Lemma snext_rest s t s' : snext s = Some (t, s') -> rest_of s' s.
  Proof.
    unfold snext, rest_of. destruct s as [[|t0 l] [t1|]]; cbn [fst snd]; intros H; inversion H; subst; cbn [fst snd length]; auto.
  Qed.

  Lemma p_loop_stream : forall fuel s st f r, p_loop fuel s st = Ok (f, r) -> rest_of r s.
  Proof.
    induction fuel as [|fuel IH]; intros s st f r; cbn [FltParse.p_loop]; [discriminate|].
    assert (Hfin : forall x, bind (p_finish st) (fun r0 => Ok (r0, x)) = Ok (f, r) -> r = x).
    { intros x. destruct (p_finish st); cbn [bind]; try discriminate. intros H. injection H as _ <-. reflexivity. }
    destruct (snext s) as [[t s']|] eqn:E; [apply snext_rest in E|intros H; apply Hfin in H; subst r; split; reflexivity].
    repeat match goal with
           | |- (if ?c then _ else _) = _ -> _ => destruct c
           | |- match ?x with _ => _ end = _ -> _ => destruct x
           end; try discriminate;
      try (intros H; apply IH in H; exact (rest_of_trans _ _ _ H E));
      try (intros H; apply Hfin in H; subst r; exact E).
    (* "(": the sub-expression, then what follows it *)
    destruct (p_loop fuel s' pst0) as [[f0 r0]| | |] eqn:E0; cbn [bind]; try discriminate.
    intros H. apply IH in E0. apply IH in H. exact (rest_of_trans _ _ _ H (rest_of_trans _ _ _ E0 E)).
  Qed.

  Definition okerr {A} (r : res A) : Prop := match r with Ok _ | Err => True | Fuel | Crash => False end.

  Lemma okerr_bind {A B} (r : res A) (g : A -> res B) : okerr r -> (forall x, okerr (g x)) -> okerr (bind r g).
  Proof. destruct r; cbn [bind okerr]; intros H Hg; try tauto. apply Hg. Qed.

  Lemma parse_name_index_okerr q v : okerr (parse_name_index q v).
  Proof.
    unfold parse_name_index.
    repeat match goal with
           | |- okerr (if ?c then _ else _) => destruct c
           | |- okerr (match ?x with _ => _ end) => destruct x
           end; exact I.
  Qed.

  Lemma parse_field_name_okerr t d : okerr (parse_field_name t d).
  Proof.
    unfold parse_field_name.
    destruct (negb (tk t =? c_LTOKEN_USERSTRING) || (negb (tq t) && (len (tval t) =? 0))); [exact I|].
    destruct (if negb (tq t) && d then split_last 124 (tval t) else None) as [[a b]|];
      (apply okerr_bind; [apply parse_name_index_okerr|intros x; exact I]).
  Qed.

  Lemma mk_subexpr_okerr nt idx ot vt ty def : okerr (mk_subexpr atof d2f nt idx ot vt ty def).
  Proof.
    unfold mk_subexpr.
    repeat match goal with
           | |- okerr (if ?c then _ else _) => destruct c
           | |- okerr (match ?x with _ => _ end) => destruct x
           | |- okerr (let _ := _ in _) => cbv zeta
           end; exact I.
  Qed.

  Lemma p_finish_okerr st : okerr (p_finish st).
  Proof.
    unfold FltParse.p_finish.
    destruct (p_conj st) as [[k kids]|]; [destruct (p_sub st); exact I|].
    destruct (p_sub st); [exact I|].
    destruct (length (p_toks st) <? 2)%nat; [exact I|]. cbv zeta.
    match goal with |- okerr (match ?l with _ => _ end) => destruct l as [|a [|b [|c [|d r]]]] end; try exact I.
    - destruct (negb (tk a =? c_LTOKEN_EXISTS)); [exact I|].
      apply okerr_bind; [apply parse_field_name_okerr|]. intros x.
      apply okerr_bind; [apply mk_subexpr_okerr|]. intros y. exact I.
    - apply okerr_bind.
      + destruct (tk a =? c_LTOKEN_WHAT); [exact I|apply parse_field_name_okerr].
      + intros x. match goal with |- okerr (if ?c then _ else _) => destruct c end; [exact I|].
        apply okerr_bind; [apply mk_subexpr_okerr|]. intros y. exact I.
  Qed.

  Lemma p_finish_bind_okerr st (x : stream) : okerr (bind (p_finish st) (fun r0 => Ok (r0, x))).
  Proof. apply okerr_bind; [apply p_finish_okerr|intros; exact I]. Qed.

  (* steps a predicate in progress can still take without a token being consumed: it errs at its fifth token, so five
     appends and the finishing step at most; parse_expr's `+ 8` leaves room for that on top of one step per token *)
  Definition slack (st : pst) : nat := 6 - Nat.min (length (p_toks st)) 5.

  (* on the token stream of ANY string the parser finishes within the fuel parse_expr gives it *)
  Lemma p_loop_okerr : forall fuel s st,
    tail_ok s -> (length (fst s) + slack st <= fuel)%nat -> okerr (p_loop fuel s st).
  Proof.
    induction fuel as [|fuel IH]; intros s st Ht Hf.
    - unfold slack in Hf. lia.
    - cbn [FltParse.p_loop]. destruct s as [l tl]. unfold snext. cbn [fst snd] in *.
      destruct l as [|t l].
      + destruct tl as [t|]; [|apply p_finish_bind_okerr].
        destruct Ht as [Ht|Ht]; cbn [snd] in Ht; [discriminate|]. injection Ht as ->.
        (* the stuck empty word: it is not a structural token *)
        cbn [stuck_tok user_tok tk N.eqb Pos.eqb orb].
        destruct (p_conj st); [exact I|]. destruct (p_sub st); [exact I|]. cbv zeta.
        destruct (4 <? length (p_toks st ++ [stuck_tok]))%nat eqn:E; [exact I|].
        apply Nat.ltb_ge in E. rewrite app_length in E. cbn [length] in E.
        apply IH; [right; reflexivity|]. cbn [fst length]. unfold slack in *. cbn [p_toks].
        rewrite app_length. cbn [length]. lia.
      + cbn [length] in Hf.
        assert (Hl : forall st', (slack st' <= slack st)%nat -> okerr (p_loop fuel (l, tl) st')).
        { intros st' Hs. apply IH; [exact Ht|cbn [fst]; lia]. }
        destruct (tk t =? c_LTOKEN_NOT).
        { destruct (match p_sub st with Some _ => true | None => negb (length (p_toks st) =? 0)%nat end); [exact I|].
          apply Hl. unfold slack. cbn [p_toks]. lia. }
        destruct (tk t =? c_LTOKEN_LPAREN).
        { destruct (match p_sub st with Some _ => true | None => negb (length (p_toks st) =? 0)%nat end) eqn:Eb; [exact I|].
          assert (Hnil : length (p_toks st) = 0%nat).
          { destruct (p_sub st); [discriminate|]. apply negb_false_iff, Nat.eqb_eq in Eb. exact Eb. }
          assert (Hst : slack st = 6%nat) by (unfold slack; rewrite Hnil; reflexivity).
          assert (Hx : okerr (p_loop fuel (l, tl) pst0)).
          { apply IH; [exact Ht|cbn [fst]; unfold slack at 1; cbn; lia]. }
          destruct (p_loop fuel (l, tl) pst0) as [[f0 r0]| | |] eqn:E0; cbn [bind fst snd]; try exact Hx.
          apply p_loop_stream in E0. destruct E0 as [E1 E2]. cbn [fst snd] in E1, E2.
          apply IH.
          - unfold tail_ok. rewrite E2. exact Ht.
          - unfold slack at 1. cbn [p_toks fst snd]. rewrite Hnil. cbn. lia. }
        destruct (tk t =? c_LTOKEN_RPAREN).
        { destruct (match p_sub st, p_conj st, p_toks st with None, None, [] => true | _, _, _ => false end); [exact I|].
          apply p_finish_bind_okerr. }
        destruct ((tk t =? c_LTOKEN_AND) || (tk t =? c_LTOKEN_OR) || (tk t =? c_LTOKEN_XOR)).
        { destruct (p_sub st); [|exact I].
          destruct (p_conj st) as [[k0 kids]|].
          - destruct (negb (k0 =? tk t)); [exact I|]. apply Hl. unfold slack. cbn [p_toks]. lia.
          - apply Hl. unfold slack. cbn [p_toks]. lia. }
        destruct (p_conj st); [exact I|]. destruct (p_sub st); [exact I|]. cbv zeta.
        destruct (4 <? length (p_toks st ++ [t]))%nat eqn:E; [exact I|].
        apply Nat.ltb_ge in E. rewrite app_length in E. cbn [length] in E.
        apply IH; [exact Ht|]. cbn [fst]. unfold slack in *. cbn [p_toks]. rewrite app_length. cbn [length]. lia.
  Qed.

  (* CreateQueryFilterFromExpression is defined on every string; the loops of the model never run
     out of the fuel they are given (a parse error or a filter, always) *)
  Theorem parse_expr_total (e : bytes) :
    let chars := ub e in
    let s := lex_all (S (length chars)) chars in
    okerr (p_loop (length (fst s) + 8) s pst0).
  Proof.
    cbv zeta. apply p_loop_okerr; [apply lex_all_tail_ok|]. unfold slack. cbn. lia.
  Qed.
End ParserFuel.
