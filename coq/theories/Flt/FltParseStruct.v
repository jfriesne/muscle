(* Flt/FltParseStruct.v -- the parser builds the tree the grammar denotes (C14), at the level of tokens:
     predicate  ::= [!] t1 .. tn                    (n <= 4 tokens, none of them ! ( ) && || ^)
     operand    ::= [!] ( body )
     body       ::= predicate  |  operand  |  operand K operand K .. K operand   (one conjunction keyword K, >= 2 operands)
     expression ::= body
   For every such token sequence (any nesting depth, any number of operands) the parser's loop -- negation flag,
   recursion on "(", conjunction accumulation, the checks on ")" -- returns exactly the denoted filter:
   the predicate's filter (p_finish on its tokens), NOR around a negated operand, And/Or/Xor over the operands in
   order; an error in any predicate is the error of the whole. *)
From Coq Require Import List NArith ZArith Bool Lia.
From Muscle Require Import Gen.Consts Msg.MsgDefs Msg.MsgModel Flt.FltModel Flt.FltParse.
Import ListNotations.
Local Open Scope N_scope.

Definition is_conj (k : N) : bool := (k =? c_LTOKEN_AND) || (k =? c_LTOKEN_OR) || (k =? c_LTOKEN_XOR).
Definition structural (k : N) : bool :=
  (k =? c_LTOKEN_NOT) || (k =? c_LTOKEN_LPAREN) || (k =? c_LTOKEN_RPAREN) || is_conj k.

Inductive body : Type :=
| BLeaf (neg : bool) (ts : list ltok)
| BOp (o : operand)                                   (* redundant parentheses: ((a == 1)), (!(a == 1)) *)
| BConj (k : N) (o1 : operand) (os : olist)
with operand : Type :=
| OGroup (neg : bool) (b : body)
with olist : Type :=
| ONil
| OCons (o : operand) (t : olist).

Scheme body_mi := Induction for body Sort Prop
  with operand_mi := Induction for operand Sort Prop
  with olist_mi := Induction for olist Sort Prop.
Combined Scheme body_mutind from body_mi, operand_mi, olist_mi.

Definition t_not := fixed_tok c_LTOKEN_NOT.
Definition t_lp := fixed_tok c_LTOKEN_LPAREN.
Definition t_rp := fixed_tok c_LTOKEN_RPAREN.
Definition neg_toks (neg : bool) : list ltok := if neg then [t_not] else [].

Fixpoint toks_body (b : body) : list ltok :=
  match b with
  | BLeaf neg ts => neg_toks neg ++ ts
  | BOp o => toks_op o
  | BConj k o1 os => toks_op o1 ++ toks_rest k os
  end
with toks_op (o : operand) : list ltok :=
  match o with OGroup neg b => neg_toks neg ++ t_lp :: toks_body b ++ [t_rp] end
with toks_rest (k : N) (os : olist) : list ltok :=
  match os with ONil => [] | OCons o t => fixed_tok k :: toks_op o ++ toks_rest k t end.

Fixpoint wf_body (b : body) : Prop :=
  match b with
  | BLeaf _ ts => Forall (fun t => structural (tk t) = false) ts /\ (length ts <= 4)%nat
  | BOp o => wf_op o
  | BConj k o1 os => is_conj k = true /\ os <> ONil /\ wf_op o1 /\ wf_olist os
  end
with wf_op (o : operand) : Prop := match o with OGroup _ b => wf_body b end
with wf_olist (os : olist) : Prop := match os with ONil => True | OCons o t => wf_op o /\ wf_olist t end.

Section Struct.
  Variable atof : list N -> N.
  Variable d2f : N -> N.
  Notation p_loop := (p_loop atof d2f).
  Notation p_finish := (p_finish atof d2f).

  (* what the grammar denotes *)
  Fixpoint den_body (b : body) : res qfilter :=
    match b with
    | BLeaf neg ts => p_finish (mkP ts None None neg)
    | BOp o => den_op o
    | BConj k o1 os =>
        bind (den_op o1) (fun f1 => bind (den_rest os) (fun fs => Ok (conj_filter k (f1 :: fs))))
    end
  with den_op (o : operand) : res qfilter :=
    match o with OGroup neg b => bind (den_body b) (fun f => Ok (maybe_negate neg f)) end
  with den_rest (os : olist) : res (list qfilter) :=
    match os with
    | ONil => Ok []
    | OCons o t => bind (den_op o) (fun f => bind (den_rest t) (fun fs => Ok (f :: fs)))
    end.

  (* how a (sub)expression ends: the closing parenthesis of the group it is in, or the end of the tokens *)
  Inductive ending : list ltok -> option ltok -> list ltok -> Prop :=
  | EndParen rest tl : ending (t_rp :: rest) tl rest
  | EndInput : ending [] None [].

  (* one step of the loop on a token, by kind *)
  Lemma step_not fuel l tl toks c neg :
    p_loop (S fuel) (t_not :: l, tl) (mkP toks c None neg) =
    if negb (length toks =? 0)%nat then Err else p_loop fuel (l, tl) (mkP toks c None (negb neg)).
  Proof. reflexivity. Qed.

  Lemma step_lparen fuel l tl c neg :
    p_loop (S fuel) (t_lp :: l, tl) (mkP [] c None neg) =
    bind (p_loop fuel (l, tl) pst0) (fun r => p_loop fuel (snd r) (mkP [] c (Some (fst r)) neg)).
  Proof. reflexivity. Qed.

  Lemma step_word fuel t l tl toks neg :
    structural (tk t) = false ->
    p_loop (S fuel) (t :: l, tl) (mkP toks None None neg) =
    if (4 <? length (toks ++ [t]))%nat then Err else p_loop fuel (l, tl) (mkP (toks ++ [t]) None None neg).
  Proof.
    intros H. unfold structural, is_conj in H. rewrite !orb_false_iff in H. destruct H as [[[H1 H2] H3] [[H4 H5] H6]].
    cbn [FltParse.p_loop]. unfold snext. cbn [fst snd p_toks p_conj p_sub p_neg].
    rewrite H1, H2, H3, H4, H5, H6. reflexivity.
  Qed.

  (* the end of a (sub)expression: ")" or the end of the tokens (an empty "()" is an error either way) *)
  Lemma step_end fuel term tl rest st :
    ending term tl rest ->
    p_loop (S fuel) (term, tl) st = bind (p_finish st) (fun f => Ok (f, (rest, tl))).
  Proof.
    intros He. destruct He as [rest tl|].
    - cbn [FltParse.p_loop]. unfold snext. cbn [fst snd].
      change (tk t_rp =? c_LTOKEN_NOT) with false. change (tk t_rp =? c_LTOKEN_LPAREN) with false.
      change (tk t_rp =? c_LTOKEN_RPAREN) with true. cbv iota.
      destruct st as [toks c sub neg]. cbn [p_sub p_conj p_toks].
      destruct sub; [reflexivity|]. destruct c; [reflexivity|]. destruct toks; reflexivity.
    - reflexivity.
  Qed.

  (* a run of predicate tokens *)
  Lemma run_words : forall ts fuel l tl toks neg,
    Forall (fun t => structural (tk t) = false) ts -> (length toks + length ts <= 4)%nat ->
    p_loop (length ts + fuel) (ts ++ l, tl) (mkP toks None None neg) = p_loop fuel (l, tl) (mkP (toks ++ ts) None None neg).
  Proof.
    induction ts as [|t ts IH]; intros fuel l tl toks neg Hf Hl.
    - rewrite app_nil_r. reflexivity.
    - inversion Hf as [|? ? Ht Hts]; subst. cbn [length app plus].
      rewrite step_word by exact Ht.
      rewrite app_length. cbn [length] in *.
      destruct (4 <? length toks + 1)%nat eqn:E; [apply Nat.ltb_lt in E; lia|].
      rewrite IH by (try assumption; rewrite app_length; cbn [length]; lia).
      rewrite <- app_assoc. reflexivity.
  Qed.

  Definition acc (c : option (N * list qfilter)) : list qfilter := match c with Some (_, kids) => kids | None => [] end.
  Definition conj_ok (k : N) (c : option (N * list qfilter)) : Prop := match c with Some (k0, _) => k0 = k | None => True end.

  Lemma step_conj fuel k l tl c fprev negprev :
    is_conj k = true -> conj_ok k c ->
    p_loop (S fuel) (fixed_tok k :: l, tl) (mkP [] c (Some fprev) negprev) =
    p_loop fuel (l, tl) (mkP [] (Some (k, acc c ++ [maybe_negate negprev fprev])) None false).
  Proof.
    intros Hk Hc.
    cbn [FltParse.p_loop]. unfold snext. cbn [fst snd fixed_tok tk p_toks p_conj p_sub p_neg].
    assert (Hs : (k =? c_LTOKEN_NOT) = false /\ (k =? c_LTOKEN_LPAREN) = false /\ (k =? c_LTOKEN_RPAREN) = false).
    { unfold is_conj in Hk. rewrite !orb_true_iff, !N.eqb_eq in Hk. destruct Hk as [[->| ->]| ->]; repeat split. }
    destruct Hs as [-> [-> ->]]. unfold is_conj in Hk. rewrite Hk.
    destruct c as [[k0 kids]|]; cbn [conj_ok acc] in *.
    - subst k0. rewrite N.eqb_refl. reflexivity.
    - reflexivity.
  Qed.

  Lemma finish_conj k kids f neg :
    p_finish (mkP [] (Some (k, kids)) (Some f) neg) = Ok (conj_filter k (kids ++ [maybe_negate neg f])).
  Proof. reflexivity. Qed.

  Lemma fuel_split (a b : nat) : (a < b)%nat -> exists f, b = (a + S f)%nat.
  Proof. intros H. exists (b - a - 1)%nat. lia. Qed.

  Theorem parser_structure :
    (forall b, wf_body b -> forall fuel term tl rest,
        ending term tl rest -> (length (toks_body b ++ term) < fuel)%nat ->
        p_loop fuel (toks_body b ++ term, tl) pst0 = bind (den_body b) (fun f => Ok (f, (rest, tl))))
    /\ (forall o, wf_op o -> forall fuel more tl c,
        (length (toks_op o ++ more) < fuel)%nat ->
        exists fuel', (length more < fuel')%nat /\
        p_loop fuel (toks_op o ++ more, tl) (mkP [] c None false) =
        match o with OGroup neg b =>
          bind (den_body b) (fun f => p_loop fuel' (more, tl) (mkP [] c (Some f) neg)) end)
    /\ (forall os, wf_olist os -> forall k fuel term tl rest c fprev negprev,
        is_conj k = true -> conj_ok k c -> (c <> None \/ os <> ONil) ->
        ending term tl rest -> (length (toks_rest k os ++ term) < fuel)%nat ->
        p_loop fuel (toks_rest k os ++ term, tl) (mkP [] c (Some fprev) negprev) =
        bind (den_rest os) (fun fs => Ok (conj_filter k (acc c ++ maybe_negate negprev fprev :: fs), (rest, tl)))).
  Proof.
    apply body_mutind.
    - (* BLeaf *)
      intros neg ts [Hf Hl] fuel term tl rest He Hlen. cbn [toks_body den_body] in *.
      rewrite <- app_assoc in *. rewrite !app_length in Hlen.
      destruct neg; cbn [neg_toks app length] in *.
      + destruct fuel as [|fuel]; [lia|]. unfold pst0. rewrite step_not. cbn [length Nat.eqb negb].
        destruct (fuel_split (length ts) fuel ltac:(lia)) as [f ->].
        rewrite run_words by (try assumption; cbn [length]; lia). cbn [app].
        apply step_end. exact He.
      + destruct (fuel_split (length ts) fuel ltac:(lia)) as [f ->].
        unfold pst0. rewrite run_words by (try assumption; cbn [length]; lia). cbn [app].
        apply step_end. exact He.
    - (* BOp: a lone operand *)
      intros o IHo Hw fuel term tl rest He Hlen. cbn [toks_body den_body wf_body] in *.
      destruct (IHo Hw fuel term tl None Hlen) as [fuel' [Hf' Heq]].
      unfold pst0. rewrite Heq. destruct o as [neg b]. cbn [den_op].
      destruct (den_body b) as [f| | |]; cbn [bind]; try reflexivity.
      destruct fuel' as [|f']; [destruct He; cbn [length] in Hf'; lia|].
      rewrite (step_end f' term tl rest _ He). reflexivity.
    - (* BConj *)
      intros k o1 IH1 os IHos [Hk [Hne [Hw1 Hws]]] fuel term tl rest He Hlen. cbn [toks_body den_body] in *.
      rewrite <- app_assoc in *.
      destruct (IH1 Hw1 fuel (toks_rest k os ++ term) tl None Hlen) as [fuel' [Hf' Heq]].
      unfold pst0. rewrite Heq. destruct o1 as [neg b]. cbn [den_op].
      destruct (den_body b) as [f| | |]; cbn [bind]; try reflexivity.
      rewrite (IHos Hws k fuel' term tl rest None f neg Hk I (or_intror Hne) He Hf'). cbn [acc app].
      destruct (den_rest os); reflexivity.
    - (* OGroup *)
      intros neg b IHb Hw fuel more tl c Hlen. cbn [toks_op wf_op] in *.
      assert (Hlist : (neg_toks neg ++ t_lp :: toks_body b ++ [t_rp]) ++ more = neg_toks neg ++ t_lp :: toks_body b ++ t_rp :: more).
      { rewrite <- app_assoc. cbn [app]. rewrite <- app_assoc. reflexivity. }
      rewrite Hlist in *. clear Hlist.
      rewrite app_length in Hlen. cbn [length] in Hlen. rewrite app_length in Hlen. cbn [length] in Hlen.
      assert (Hgo : forall fuel0, (length (toks_body b) + length more + 2 < fuel0)%nat ->
                forall ng, exists fuel', (length more < fuel')%nat /\
                  p_loop fuel0 (t_lp :: toks_body b ++ t_rp :: more, tl) (mkP [] c None ng) =
                  bind (den_body b) (fun f => p_loop fuel' (more, tl) (mkP [] c (Some f) ng))).
      { intros fuel0 H0 ng. destruct fuel0 as [|f0]; [lia|].
        exists f0. split; [lia|].
        rewrite step_lparen.
        rewrite (IHb Hw f0 (t_rp :: more) tl more (EndParen more tl)) by (rewrite app_length; cbn [length]; lia).
        destruct (den_body b); reflexivity. }
      destruct neg; cbn [neg_toks app length] in *.
      + destruct fuel as [|fuel]; [lia|]. rewrite step_not. cbn [length Nat.eqb negb].
        apply (Hgo fuel). lia.
      + apply (Hgo fuel). lia.
    - (* ONil *)
      intros _ k fuel term tl rest c fprev negprev Hk Hc Hne He Hlen. cbn [toks_rest den_rest app bind].
      destruct fuel as [|fuel]; [lia|].
      rewrite (step_end fuel term tl rest _ He).
      destruct c as [[k0 kids]|]; [|destruct Hne; congruence].
      cbn [conj_ok] in Hc. subst k0. rewrite finish_conj. reflexivity.
    - (* OCons *)
      intros o IHo t IHt [Hwo Hwt] k fuel term tl rest c fprev negprev Hk Hc _ He Hlen.
      cbn [toks_rest den_rest] in *.
      assert (Hlist : (fixed_tok k :: toks_op o ++ toks_rest k t) ++ term = fixed_tok k :: toks_op o ++ toks_rest k t ++ term).
      { cbn [app]. rewrite <- app_assoc. reflexivity. }
      rewrite Hlist in *. clear Hlist. cbn [length] in Hlen.
      destruct fuel as [|fuel]; [lia|].
      rewrite (step_conj fuel k _ tl c fprev negprev Hk Hc).
      destruct (IHo Hwo fuel (toks_rest k t ++ term) tl (Some (k, acc c ++ [maybe_negate negprev fprev])) ltac:(lia))
        as [fuel' [Hf' Heq]].
      rewrite Heq. destruct o as [neg b]. cbn [den_op].
      destruct (den_body b) as [f| | |]; cbn [bind]; try reflexivity.
      assert (Hne2 : Some (k, acc c ++ [maybe_negate negprev fprev]) <> None \/ t <> ONil) by (left; discriminate).
      assert (Hck : conj_ok k (Some (k, acc c ++ [maybe_negate negprev fprev]))) by reflexivity.
      rewrite (IHt Hwt k fuel' term tl rest (Some (k, acc c ++ [maybe_negate negprev fprev])) f neg Hk Hck Hne2 He Hf').
      cbn [acc]. destruct (den_rest t); cbn [bind]; try reflexivity.
      rewrite <- app_assoc. reflexivity.
  Qed.

  (* the whole expression: a body, or one (possibly negated) parenthesised operand *)
  Corollary parse_body b :
    wf_body b ->
    p_loop (length (toks_body b) + 8) (toks_body b, None) pst0 = bind (den_body b) (fun f => Ok (f, ([], None))).
  Proof.
    intros H. pose proof (proj1 parser_structure b H (length (toks_body b) + 8)%nat [] None [] EndInput) as P.
    rewrite app_nil_r in P. apply P. lia.
  Qed.
End Struct.
