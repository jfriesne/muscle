(* Flt/FltListLemmas.v -- list lemmas behind the raw-data and string operators (C14): the length-guarded
   takeN/dropN + comparison forms the C++ uses (memcmp / strncmp with explicit lengths, the scanning loops of
   MemMem, strstr and StrcasestrEx) say "is a prefix / suffix / infix of", and memcmp-then-length is the
   lexicographic order. *)
From Coq Require Import List NArith Bool Strings.Byte Lia.
From Muscle Require Import Gen.Consts Msg.MsgDefs Msg.MsgModel Msg.MsgBytesProofs Flt.FltModel.
Import ListNotations.
Local Open Scope N_scope.

(* ------------------------------------------------------------------ lex_cmp / leqb *)

Lemma lex_cmp_eq (a b : list N) : lex_cmp a b = Eq <-> a = b.
Proof.
  revert b. induction a as [|x a IH]; intros [|y b]; cbn [lex_cmp]; try (split; [discriminate|discriminate]); [tauto|].
  destruct (N.compare x y) eqn:E.
  - apply N.compare_eq in E. subst y. rewrite IH. split; [intros ->; reflexivity|intros H; injection H; auto].
  - split; [discriminate|]. intros H. injection H as -> _. rewrite N.compare_refl in E. discriminate.
  - split; [discriminate|]. intros H. injection H as -> _. rewrite N.compare_refl in E. discriminate.
Qed.

Lemma leqb_eq (a b : list N) : leqb a b = true <-> a = b.
Proof.
  unfold leqb. rewrite <- lex_cmp_eq. destruct (lex_cmp a b); split; congruence.
Qed.

Lemma leqb_refl (a : list N) : leqb a a = true.
Proof. apply leqb_eq. reflexivity. Qed.

Lemma lex_cmp_refl (a : list N) : lex_cmp a a = Eq.
Proof. apply lex_cmp_eq. reflexivity. Qed.

(* comparing the common-length prefixes first and the lengths second IS the lexicographic comparison *)
Lemma lex_cmp_split (a b : list N) :
  lex_cmp a b =
  match lex_cmp (takeN (N.min (len a) (len b)) a) (takeN (N.min (len a) (len b)) b) with
  | Eq => N.compare (len a) (len b)
  | c => c
  end.
Proof.
  revert b. induction a as [|x a IH]; intros [|y b]; cbn [len].
  - reflexivity.
  - replace (N.min 0 (N.succ (len b))) with 0 by lia. cbn [lex_cmp takeN N.eqb].
    symmetry. rewrite N.compare_lt_iff. lia.
  - replace (N.min (N.succ (len a)) 0) with 0 by lia. cbn [lex_cmp takeN N.eqb].
    symmetry. rewrite N.compare_gt_iff. lia.
  - replace (N.min (N.succ (len a)) (N.succ (len b))) with (N.succ (N.min (len a) (len b))) by lia.
    cbn [takeN]. destruct (N.succ (N.min (len a) (len b)) =? 0) eqn:E; [apply N.eqb_eq in E; lia|].
    rewrite N.pred_succ. cbn [lex_cmp]. destruct (N.compare x y); try reflexivity.
    rewrite IH. destruct (lex_cmp _ _); try reflexivity.
    destruct (N.compare_spec (len a) (len b)) as [H|H|H]; symmetry.
    + apply N.compare_eq_iff. lia.
    + apply N.compare_lt_iff. lia.
    + apply N.compare_gt_iff. lia.
Qed.

(* ------------------------------------------------------------------ prefix / suffix / infix *)

Lemma takeN_prefix {A} (p s : list A) : len p <= len s -> takeN (len p) s = p <-> exists t, s = p ++ t.
Proof.
  intros Hl. split.
  - intros H. exists (dropN (len p) s). rewrite <- H at 1. symmetry. apply takeN_dropN.
  - intros [t ->]. apply takeN_app_exact.
Qed.

Lemma prefix_guard (p s : list N) :
  (len p <=? len s) && leqb (takeN (len p) s) p = true <-> exists t, s = p ++ t.
Proof.
  rewrite andb_true_iff, N.leb_le, leqb_eq. split.
  - intros [Hl H]. apply takeN_prefix; assumption.
  - intros [t ->]. split; [rewrite len_app; lia|apply takeN_app_exact].
Qed.

Lemma dropN_app_len {A} (a b : list A) : dropN (len a) (a ++ b) = b.
Proof. apply dropN_app_exact. Qed.

Lemma suffix_guard (p s : list N) :
  (len p <=? len s) && leqb (dropN (len s - len p) s) p = true <-> exists t, s = t ++ p.
Proof.
  rewrite andb_true_iff, N.leb_le, leqb_eq. split.
  - intros [Hl H]. exists (takeN (len s - len p) s). rewrite <- H at 2. symmetry. apply takeN_dropN.
  - intros [t ->]. rewrite len_app. split; [lia|].
    replace (len t + len p - len p) with (len t) by lia. apply dropN_app_exact.
Qed.

(* the infix relation, by scanning every start position *)
Fixpoint infixb (p s : list N) : bool :=
  leqb (takeN (len p) s) p && (len p <=? len s) || match s with [] => false | _ :: t => infixb p t end.

Lemma infixb_spec (p s : list N) : infixb p s = true <-> exists a b, s = a ++ p ++ b.
Proof.
  induction s as [|x s IH]; cbn [infixb].
  - rewrite orb_false_r, andb_comm, prefix_guard. split.
    + intros [t H]. exists [], t. exact H.
    + intros [a [b H]]. destruct a; [|discriminate]. exists b. exact H.
  - rewrite orb_true_iff, andb_comm, prefix_guard, IH. split.
    + intros [[t H]|[a [b H]]]; [exists [], t; exact H|exists (x :: a), b; rewrite H; reflexivity].
    + intros [a [b H]]. destruct a as [|y a].
      * left. exists b. exact H.
      * right. injection H as -> H. exists a, b. exact H.
Qed.

(* strstr: the model's scan (which does not re-check the length) agrees with the guarded one *)
Lemma takeN_short_neq (p s : list N) : len s < len p -> leqb (takeN (len p) s) p = false.
Proof.
  intros H. destruct (leqb (takeN (len p) s) p) eqn:E; [|reflexivity].
  apply leqb_eq in E. assert (Hl : len (takeN (len p) s) = len p) by (rewrite E; reflexivity).
  rewrite len_takeN in Hl. lia.
Qed.

Lemma scan_from_infixb (p s : list N) : scan_from p s = infixb p s.
Proof.
  induction s as [|x s IH]; cbn [scan_from infixb].
  - rewrite !orb_false_r. destruct (len p <=? len (@nil N)) eqn:E; [rewrite andb_true_r; reflexivity|].
    apply N.leb_gt in E. rewrite takeN_short_neq by exact E. reflexivity.
  - rewrite IH. destruct (len p <=? len (x :: s)) eqn:E; [rewrite andb_true_r; reflexivity|].
    apply N.leb_gt in E. rewrite takeN_short_neq by exact E. reflexivity.
Qed.

(* the counted scans (StrcasestrEx, MemMem): positions 0 .. len s - len p *)
Lemma dropN_1_cons {A} (x : A) s : dropN 1 (x :: s) = s.
Proof. cbn [dropN N.eqb]. change (N.pred 1) with 0. apply dropN_0. Qed.

Lemma infixb_short (p s : list N) : len s < len p -> infixb p s = false.
Proof.
  revert p. induction s as [|x s IH]; intros p H; cbn [infixb].
  - rewrite takeN_short_neq by exact H. reflexivity.
  - rewrite takeN_short_neq by exact H. cbn [andb orb]. apply IH. cbn [len] in H. lia.
Qed.

Lemma scan_n_infixb (p : list N) : forall (s : list N) k,
  len p <= len s -> k = N.to_nat (len s - (len p - 1)) -> 0 < len p -> scan_n k p s = infixb p s.
Proof.
  intros s. induction s as [|x s IH]; intros k Hl Hk Hp.
  - cbn [len] in Hl. lia.
  - cbn [len] in *. destruct k as [|k]; [lia|]. cbn [scan_n infixb len]. rewrite dropN_1_cons.
    replace (len p <=? N.succ (len s)) with true by (symmetry; apply N.leb_le; lia). rewrite andb_true_r.
    destruct (N.le_gt_cases (len p) (len s)) as [Hle|Hgt].
    + rewrite (IH k); [reflexivity|exact Hle|lia|exact Hp].
    + rewrite infixb_short by exact Hgt.
      assert (k = O) by lia. subst k. reflexivity.
Qed.

(* ------------------------------------------------------------------ transfer along ub / lb *)

Lemma ub_inj (a b : bytes) : ub a = ub b -> a = b.
Proof.
  revert b. induction a as [|x a IH]; intros [|y b] H; cbn [ub map] in H; try discriminate; [reflexivity|].
  injection H as Hx H. apply N_of_byte_inj in Hx. subst y. f_equal. apply IH. exact H.
Qed.

Lemma ub_app (a b : bytes) : ub (a ++ b) = ub a ++ ub b.
Proof. apply map_app. Qed.

Lemma len_map {A B} (g : A -> B) (l : list A) : len (map g l) = len l.
Proof. induction l as [|x l IH]; cbn [map len]; [reflexivity|]. rewrite IH. reflexivity. Qed.

Lemma takeN_map {A B} (g : A -> B) n (l : list A) : takeN n (map g l) = map g (takeN n l).
Proof.
  revert n. induction l as [|x l IH]; intros n; cbn [map takeN]; [reflexivity|].
  destruct (n =? 0); [reflexivity|]. cbn [map]. rewrite IH. reflexivity.
Qed.

Lemma dropN_map {A B} (g : A -> B) n (l : list A) : dropN n (map g l) = map g (dropN n l).
Proof.
  revert n. induction l as [|x l IH]; intros n; cbn [map dropN]; [reflexivity|].
  destruct (n =? 0); [reflexivity|]. apply IH.
Qed.

Lemma map_eq_app {A B} (g : A -> B) (l : list A) (u v : list B) :
  map g l = u ++ v -> exists a b, l = a ++ b /\ map g a = u /\ map g b = v.
Proof.
  revert u. induction l as [|x l IH]; intros u H; cbn [map] in H.
  - destruct u; [|discriminate]. destruct v; [|discriminate]. exists [], []. repeat split.
  - destruct u as [|y u].
    + exists [], (x :: l). cbn [app] in *. repeat split. exact H.
    + injection H as Hy H. destruct (IH u H) as [a [b [-> [Ha Hb]]]].
      exists (x :: a), b. cbn [map app]. rewrite Hy, Ha. repeat split. exact Hb.
Qed.

Lemma ub_prefix (p s : bytes) : (exists t, ub s = ub p ++ t) <-> exists t, s = p ++ t.
Proof.
  split.
  - intros [t H]. destruct (map_eq_app _ _ _ _ H) as [a [b [-> [Ha _]]]].
    apply ub_inj in Ha. subst a. exists b. reflexivity.
  - intros [t ->]. exists (ub t). apply ub_app.
Qed.

Lemma ub_suffix (p s : bytes) : (exists t, ub s = t ++ ub p) <-> exists t, s = t ++ p.
Proof.
  split.
  - intros [t H]. destruct (map_eq_app _ _ _ _ H) as [a [b [-> [_ Hb]]]].
    apply ub_inj in Hb. subst b. exists a. reflexivity.
  - intros [t ->]. exists (ub t). apply ub_app.
Qed.

Lemma ub_infix (p s : bytes) : (exists a b, ub s = a ++ ub p ++ b) <-> exists a b, s = a ++ p ++ b.
Proof.
  split.
  - intros [a [b H]]. destruct (map_eq_app _ _ _ _ H) as [a' [r [-> [_ Hr]]]].
    destruct (map_eq_app _ _ _ _ Hr) as [p' [b' [-> [Hp _]]]].
    apply ub_inj in Hp. subst p'. exists a', b'. reflexivity.
  - intros [a [b ->]]. exists (ub a), (ub b). rewrite !ub_app. reflexivity.
Qed.
