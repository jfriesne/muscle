(* Flt/FltObjectProofs.v -- SetFromArchive overwrites the whole state of a reused filter object (C14):
   whatever the object was before -- any members of its class, any cached compiled matcher, evaluated any number of
   times -- after SetFromArchive(archive of g) every later Matches() is g's decision.  The cached matcher is
   consistent with the members after every public mutator (constructor, SetOperator, SetValue, SetFromArchive, and
   Matches itself), so a used object always decides like a fresh one. *)
From Coq Require Import List NArith Bool Strings.Byte.
From Muscle Require Import Gen.Consts Msg.MsgDefs Msg.MsgModel Msg.MsgApi Msg.MsgBytesProofs
  Flt.FltModel Flt.FltArchive Flt.FltLemmas Flt.FltArchiveProofs Flt.FltObject.
Import ListNotations.
Local Open Scope N_scope.

Section Obj.
  Variable smatch : N -> bytes -> bytes -> bool.
  Variable node : nodeinfo.

  Lemma str_op_pattern op v s : is_pattern_op op = true -> str_op smatch op v s = smatch op v s.
  Proof.
    unfold is_pattern_op. intros H.
    repeat (apply orb_true_iff in H; destruct H as [H|H]); apply N.eqb_eq in H; subst op; reflexivity.
  Qed.

  (* a consistent cache is invisible *)
  Lemma obj_match_string_ok op val cache s :
    (cache = None \/ cache = Some (op, val)) ->
    fst (obj_match_string smatch op val cache s) = str_op smatch op val s /\
    (snd (obj_match_string smatch op val cache s) = None \/ snd (obj_match_string smatch op val cache s) = Some (op, val)).
  Proof.
    intros Hc. unfold obj_match_string. destruct (is_pattern_op op) eqn:Ep.
    - destruct Hc as [->| ->]; cbn [fst snd]; (split; [symmetry; apply str_op_pattern; exact Ep|right; reflexivity]).
    - cbn [fst snd]. split; [reflexivity|exact Hc].
  Qed.

  Lemma cache_ok_cases o : cache_ok o ->
    match so_filter o with
    | FStr _ _ _ op val _ => so_cache o = None \/ so_cache o = Some (op, val)
    | _ => True
    end.
  Proof.
    unfold cache_ok. destruct (so_filter o); try exact (fun _ => I).
    destruct (so_cache o) as [c|]; [intros ->; right; reflexivity|left; reflexivity].
  Qed.

  Theorem obj_eval_ok o m :
    cache_ok o ->
    fst (obj_eval smatch node o m) = eval smatch node (so_filter o) m /\
    so_filter (snd (obj_eval smatch node o m)) = so_filter o /\
    cache_ok (snd (obj_eval smatch node o m)).
  Proof.
    intros Hc. pose proof (cache_ok_cases o Hc) as Hcase. unfold obj_eval.
    destruct (so_filter o) as [| | |nn name idx op val def| | | | |] eqn:Ef; try (repeat split; [exact Ef|exact Hc]).
    cbn [eval]. unfold str_matches.
    destruct (if nn then match node with Some (_, nm) => Some nm | None => None end else or_else (find_string m name idx) def)
      as [s|] eqn:Es.
    - destruct (obj_match_string_ok op val (so_cache o) s Hcase) as [H1 H2].
      cbn [fst snd so_filter]. split; [|split; [reflexivity|]].
      + rewrite H1. destruct nn; [destruct node as [[n nm]|]; [injection Es as <-; reflexivity|discriminate]|rewrite Es; reflexivity].
      + unfold cache_ok. cbn [so_cache so_filter]. destruct H2 as [-> | ->]; [exact I|reflexivity].
    - cbn [fst snd]. split; [|split; [exact Ef|exact Hc]].
      destruct nn; [destruct node as [[n nm]|]; [discriminate|reflexivity]|rewrite Es; reflexivity].
  Qed.

  (* any number of evaluations on the same object *)
  Theorem obj_eval_all_ok : forall ms o,
    cache_ok o -> fst (obj_eval_all smatch node o ms) = map (eval smatch node (so_filter o)) ms.
  Proof.
    induction ms as [|m t IH]; intros o Hc; cbn [obj_eval_all map fst snd]; [reflexivity|].
    destruct (obj_eval_ok o m Hc) as [H1 [H2 H3]]. rewrite H1, (IH _ H3), H2. reflexivity.
  Qed.
End Obj.

Lemma fresh_cache_ok f : cache_ok (fresh f).
Proof. exact I. Qed.

Lemma set_operator_cache_ok o op : cache_ok o -> cache_ok (obj_set_operator o op).
Proof.
  intros H. unfold obj_set_operator. destruct (so_filter o) eqn:E; try exact H.
  destruct (op =? op0); [exact H|exact I].
Qed.

Lemma set_value_cache_ok o v : cache_ok o -> cache_ok (obj_set_value o v).
Proof.
  intros H. unfold obj_set_value. destruct (so_filter o) eqn:E; try exact H.
  destruct (bytes_eqb v val); [exact H|exact I].
Qed.

(* NO hypothesis on the prior state of the object beyond its class *)
Theorem set_from_archive_overwrites o g :
  wf_filter g -> what_of (so_filter o) = what_of g ->
  obj_set_from_archive o (to_archive g) = Ok (fresh g).
Proof.
  intros Hw Hc. unfold obj_set_from_archive. rewrite what_to_archive, Hc, N.eqb_refl.
  rewrite (archive_roundtrip g Hw). reflexivity.
Qed.

(* ... hence: after SetFromArchive(archive of g) on ANY prior state, every later Matches() is g's decision *)
Theorem reused_object_decides_as_archived o g :
  wf_filter g -> what_of (so_filter o) = what_of g ->
  exists o', obj_set_from_archive o (to_archive g) = Ok o' /\
             forall smatch node ms, fst (obj_eval_all smatch node o' ms) = map (eval smatch node g) ms.
Proof.
  intros Hw Hc. exists (fresh g). split; [apply set_from_archive_overwrites; assumption|].
  intros smatch node ms. apply (obj_eval_all_ok smatch node ms (fresh g) I).
Qed.

(* whatever SetFromArchive yields, on any archive, the object is consistent afterwards (or the call failed) *)
Theorem set_from_archive_consistent o a o' : obj_set_from_archive o a = Ok o' -> cache_ok o'.
Proof.
  unfold obj_set_from_archive. destruct (msg_what a =? what_of (so_filter o)); [|discriminate].
  destruct (from_archive a); cbn [bind]; try discriminate. intros H. injection H as <-. exact I.
Qed.

Theorem set_from_archive_total o a : exists r, obj_set_from_archive o a = r /\ (r = Err \/ exists o', r = Ok o').
Proof.
  unfold obj_set_from_archive. destruct (msg_what a =? what_of (so_filter o)).
  - destruct (from_archive_total a) as [r [Hr [->|[f ->]]]]; rewrite Hr; cbn [bind]; eexists; split; try reflexivity; eauto.
  - eexists. split; [reflexivity|left; reflexivity].
Qed.

(* the seeded defect, stated: if the cached matcher survived a SetFromArchive that keeps the operator, the object
   would decide by the OLD pattern -- the model's (the code's) FreeMatcher is what rules that out *)
Example stale_matcher_would_differ :
  let smatch := fun (_ : N) (p s : bytes) => bytes_eqb p s in
  let stale := mkSO (FStr false [x6e] 0 c_SQF_OP_SIMPLE_WILDCARD_MATCH [x62] None) (Some (c_SQF_OP_SIMPLE_WILDCARD_MATCH, [x61])) in
  let m := Msg 0 (FCons [x6e] c_B_STRING_TYPE (RInline (IStr [x62])) FNil) in
  ~ cache_ok stale /\
  fst (obj_eval smatch None stale m) = false /\ eval smatch None (so_filter stale) m = true.
Proof. cbv zeta. split; [intros H; discriminate H|split; reflexivity]. Qed.
