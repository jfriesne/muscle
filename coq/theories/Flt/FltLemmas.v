(* Flt/FltLemmas.v -- lemmas about the Message API model as the filter archives use it (C14):
   what Message::Add* (MsgApi.api_add) does to a later lookup of the same / another field name, what a list of Add
   calls leaves under each name, and how the nesting depth of a Message bounds the depth of the sub-Messages found
   in it. *)
From Coq Require Import List NArith Bool Strings.Byte Lia.
From Muscle Require Import Gen.Consts Msg.MsgDefs Msg.MsgModel Msg.MsgApi Msg.MsgBytesProofs Flt.FltModel Flt.FltArchive.
Import ListNotations.
Local Open Scope N_scope.

(* ------------------------------------------------------------------ the field table *)

Lemma flookup_fapp n a b :
  flookup n (fapp a b) = match flookup n a with Some v => Some v | None => flookup n b end.
Proof.
  induction a as [|k tc r t IH]; cbn [flookup fapp]; [reflexivity|].
  destruct (bytes_eqb n k); [reflexivity|exact IH].
Qed.

Lemma flookup_fsnoc_same n fs tc r : flookup n fs = None -> flookup n (fsnoc fs n tc r) = Some (tc, r).
Proof. intros H. unfold fsnoc. rewrite flookup_fapp, H. cbn [flookup]. rewrite bytes_eqb_refl. reflexivity. Qed.

Lemma flookup_fsnoc_other n' n fs tc r : bytes_eqb n' n = false -> flookup n' (fsnoc fs n tc r) = flookup n' fs.
Proof. intros H. unfold fsnoc. rewrite flookup_fapp. cbn [flookup]. rewrite H. destruct (flookup n' fs); reflexivity. Qed.

Lemma flookup_fset_same n fs tc r v : flookup n fs = Some v -> flookup n (fset n tc r fs) = Some (tc, r).
Proof.
  induction fs as [|k tc' r' t IH]; cbn [flookup fset]; [discriminate|].
  destruct (bytes_eqb n k) eqn:E.
  - intros _. cbn [flookup]. rewrite E. reflexivity.
  - intros H. cbn [flookup]. rewrite E. auto.
Qed.

Lemma flookup_fset_other n' n fs tc r : bytes_eqb n' n = false -> flookup n' (fset n tc r fs) = flookup n' fs.
Proof.
  intros H. induction fs as [|k tc' r' t IH]; cbn [flookup fset]; [reflexivity|].
  destruct (bytes_eqb n k) eqn:E.
  - cbn [flookup]. apply bytes_eqb_eq in E. subst k. rewrite H. reflexivity.
  - cbn [flookup]. destruct (bytes_eqb n' k); [reflexivity|]. exact IH.
Qed.

(* ------------------------------------------------------------------ Message::Add* *)

Definition lookup (a : msg) (n : bytes) : option (N * repr) := flookup n (msg_fields a).

Lemma what_add name tc v a : msg_what (add name tc v a) = msg_what a.
Proof.
  unfold add, api_add. destruct a as [w fs]. cbn [msg_what].
  destruct (tc =? c_B_ANY_TYPE); [reflexivity|].
  destruct (flookup name fs) as [[tc' r]|]; [|reflexivity].
  destruct (tc' =? tc); reflexivity.
Qed.

(* the effect of one Add call on a later lookup of field [n] *)
Definition upd (n : bytes) (cur : option (N * repr)) (o : field_op) : option (N * repr) :=
  if bytes_eqb n (fst (fst o)) then
    if snd (fst o) =? c_B_ANY_TYPE then cur
    else match cur with
         | None => Some (snd (fst o), RInline (snd o))
         | Some (tc', r) => if tc' =? snd (fst o) then Some (snd (fst o), push false (Some r) (snd o)) else cur
         end
  else cur.

Lemma lookup_apply_op a o n : lookup (apply_op a o) n = upd n (lookup a n) o.
Proof.
  destruct o as [[name tc] v], a as [w fs]. unfold apply_op, add, api_add, upd, lookup. cbn [fst snd msg_fields].
  destruct (tc =? c_B_ANY_TYPE); [destruct (bytes_eqb n name); reflexivity|].
  destruct (bytes_eqb n name) eqn:E.
  - apply bytes_eqb_eq in E. subst name. destruct (flookup n fs) as [[tc' r]|] eqn:L.
    + destruct (tc' =? tc); cbn [fst msg_fields]; [eapply flookup_fset_same|]; exact L.
    + cbn [fst msg_fields]. apply flookup_fsnoc_same, L.
  - destruct (flookup name fs) as [[tc' r]|]; [destruct (tc' =? tc)|]; cbn [fst msg_fields];
      [apply flookup_fset_other| |apply flookup_fsnoc_other]; (exact E || reflexivity).
Qed.

Lemma lookup_add_new name tc v a :
  (tc =? c_B_ANY_TYPE) = false -> lookup a name = None -> lookup (add name tc v a) name = Some (tc, RInline v).
Proof.
  intros Hany H. rewrite (lookup_apply_op a (name, tc, v)). unfold upd. cbn [fst snd].
  rewrite bytes_eqb_refl, Hany, H. reflexivity.
Qed.

Lemma lookup_add_more name tc v a r :
  (tc =? c_B_ANY_TYPE) = false -> lookup a name = Some (tc, r) ->
  lookup (add name tc v a) name = Some (tc, push false (Some r) v).
Proof.
  intros Hany H. rewrite (lookup_apply_op a (name, tc, v)). unfold upd. cbn [fst snd].
  rewrite bytes_eqb_refl, Hany, H, N.eqb_refl. reflexivity.
Qed.

Lemma lookup_apply_ops ops : forall a n, lookup (apply_ops ops a) n = fold_left (upd n) ops (lookup a n).
Proof.
  unfold apply_ops. induction ops as [|o t IH]; intros a n; cbn [fold_left]; [reflexivity|].
  rewrite IH, lookup_apply_op. reflexivity.
Qed.

Lemma what_apply_ops ops : forall a, msg_what (apply_ops ops a) = msg_what a.
Proof.
  unfold apply_ops. induction ops as [|o t IH]; intros a; cbn [fold_left]; [reflexivity|].
  rewrite IH. unfold apply_op. apply what_add.
Qed.

(* the items a field holds, as a list *)
Fixpoint items_to_list (l : items) : list item :=
  match l with INil => [] | ICons i t => i :: items_to_list t end.
Definition repr_items (r : repr) : list item :=
  match r with RInline i => [i] | RArray l => items_to_list l end.

Lemma items_to_list_snoc l v : items_to_list (items_snoc l v) = items_to_list l ++ [v].
Proof.
  unfold items_snoc. induction l as [|i t IH]; cbn [items_app items_to_list app]; [reflexivity|].
  rewrite IH. reflexivity.
Qed.

Lemma repr_items_push r v : repr_items (push false (Some r) v) = repr_items r ++ [v].
Proof.
  destruct r as [i|l]; cbn [push repr_items items_to_list app]; [reflexivity|]. apply items_to_list_snoc.
Qed.

Lemma items_nth_list n l : items_nth n l = nth_error (items_to_list l) (N.to_nat n).
Proof.
  revert n. induction l as [|i t IH]; intros n; cbn [items_nth items_to_list].
  - destruct (N.to_nat n); reflexivity.
  - destruct (n =? 0) eqn:E.
    + apply N.eqb_eq in E. subst n. reflexivity.
    + apply N.eqb_neq in E. rewrite IH.
      replace (N.to_nat n) with (S (N.to_nat (N.pred n))) by lia. reflexivity.
Qed.

Lemma repr_nth_list n r : repr_nth n r = nth_error (repr_items r) (N.to_nat n).
Proof.
  destruct r as [i|l]; cbn [repr_nth repr_items].
  - destruct (n =? 0) eqn:E.
    + apply N.eqb_eq in E. subst n. reflexivity.
    + apply N.eqb_neq in E. destruct (N.to_nat n) as [|k] eqn:K; [lia|]. destruct k; reflexivity.
  - apply items_nth_list.
Qed.

(* ------------------------------------------------------------------ a written archive *)

Definition named (n : bytes) (o : field_op) : bool := bytes_eqb n (fst (fst o)).

Lemma upd_other n cur o : named n o = false -> upd n cur o = cur.
Proof. intros H. unfold upd. fold (named n o). rewrite H. reflexivity. Qed.

(* Add calls under other names do not show in a lookup *)
Lemma lookup_written w ops n :
  lookup (apply_ops ops (Msg w FNil)) n = fold_left (upd n) (filter (named n) ops) None.
Proof.
  rewrite lookup_apply_ops. change (lookup (Msg w FNil) n) with (@None (N * repr)). generalize (@None (N * repr)).
  induction ops as [|o t IH]; intros cur; cbn [fold_left filter]; [reflexivity|].
  destruct (named n o) eqn:E; [apply IH|]. rewrite upd_other by exact E. apply IH.
Qed.

Definition piece (n : bytes) (tc : N) (vs : list item) : list field_op := map (fun v => (n, tc, v)) vs.

Definition items_of (cur : option (N * repr)) : list item :=
  match cur with None => [] | Some (_, r) => repr_items r end.
Definition typed (tc : N) (cur : option (N * repr)) : Prop :=
  match cur with None => True | Some (tc', _) => tc' = tc end.

Lemma fold_upd_piece n tc : (tc =? c_B_ANY_TYPE) = false -> forall vs cur,
  typed tc cur ->
  typed tc (fold_left (upd n) (piece n tc vs) cur) /\
  items_of (fold_left (upd n) (piece n tc vs) cur) = items_of cur ++ vs.
Proof.
  intros Hany. induction vs as [|v vs IH]; intros cur Hc; cbn [piece map fold_left].
  - split; [exact Hc|]. symmetry. apply app_nil_r.
  - assert (Hv : typed tc (upd n cur (n, tc, v)) /\ items_of (upd n cur (n, tc, v)) = items_of cur ++ [v]).
    { unfold upd. cbn [fst snd]. rewrite bytes_eqb_refl, Hany.
      destruct cur as [[tc' r]|]; cbn [typed items_of] in *; [|split; reflexivity].
      subst tc'. rewrite N.eqb_refl. split; [reflexivity|]. apply repr_items_push. }
    destruct Hv as [Ht Hi]. destruct (IH _ Ht) as [IH1 IH2]. split; [exact IH1|].
    fold (piece n tc vs). rewrite IH2, Hi, <- app_assoc. reflexivity.
Qed.

Section Written.
  Variables (w : N) (ops : list field_op) (n : bytes) (tc : N) (vs : list item).
  Hypothesis Hany : (tc =? c_B_ANY_TYPE) = false.
  Hypothesis Hn : filter (named n) ops = piece n tc vs.     (* every Add under that name has type tc *)
  Let a := apply_ops ops (Msg w FNil).

  Lemma field_written : typed tc (lookup a n) /\ items_of (lookup a n) = vs.
  Proof. unfold a. rewrite lookup_written, Hn. apply (fold_upd_piece n tc Hany vs None I). Qed.

  Lemma find_item_written idx :
    find_item a n tc idx = match nth_error vs (N.to_nat idx) with Some i => Some (tc, i) | None => None end.
  Proof.
    destruct field_written as [Ht Hi]. unfold find_item, get_field. fold (lookup a n).
    destruct (lookup a n) as [[tc' r]|]; cbn [typed items_of] in *.
    - subst tc'. rewrite N.eqb_refl, orb_true_r, repr_nth_list, Hi. reflexivity.
    - subst vs. destruct (N.to_nat idx); reflexivity.
  Qed.

  Lemma find_data_written idx :
    find_data a n tc idx = match nth_error vs (N.to_nat idx) with Some i => find_data_tc tc i | None => None end.
  Proof. unfold find_data. rewrite find_item_written, Hany. destruct (nth_error vs (N.to_nat idx)); reflexivity. Qed.
End Written.

(* ------------------------------------------------------------------ nesting depth *)

Lemma depth_items_in i l : In i (items_to_list l) -> (depth_item i <= depth_items l)%nat.
Proof.
  induction l as [|j t IH]; cbn [items_to_list In depth_items]; [tauto|].
  intros [->|H]; [lia|]. specialize (IH H). lia.
Qed.

Lemma depth_repr_in i r : In i (repr_items r) -> (depth_item i <= depth_repr r)%nat.
Proof.
  destruct r as [j|l]; cbn [repr_items depth_repr In].
  - intros [->|[]]. lia.
  - apply depth_items_in.
Qed.

Lemma depth_fields_lookup n fs tc r : flookup n fs = Some (tc, r) -> (depth_repr r <= depth_fields fs)%nat.
Proof.
  induction fs as [|k tc' r' t IH]; cbn [flookup depth_fields]; [discriminate|].
  destruct (bytes_eqb n k).
  - intros H. injection H as <- <-. lia.
  - intros H. specialize (IH H). lia.
Qed.

(* a sub-Message found in a field of [a] is strictly shallower than [a] *)
Lemma depth_lookup_item a n tc r s :
  lookup a n = Some (tc, r) -> In (IMsg s) (repr_items r) -> (S (depth_msg s) <= depth_msg a)%nat.
Proof.
  unfold lookup. destruct a as [w fs]. cbn [msg_fields depth_msg]. intros H Hin.
  apply depth_fields_lookup in H. apply depth_repr_in in Hin. cbn [depth_item] in Hin. lia.
Qed.

Lemma nth_error_In' {A} (l : list A) n x : nth_error l n = Some x -> In x l.
Proof. apply nth_error_In. Qed.

Lemma find_msg_depth a n idx s : find_msg a n idx = Some s -> (S (depth_msg s) <= depth_msg a)%nat.
Proof.
  unfold find_msg, find_item, get_field. fold (lookup a n).
  destruct (lookup a n) as [[tc' r]|] eqn:E; [|discriminate].
  destruct ((c_B_MESSAGE_TYPE =? c_B_ANY_TYPE) || (c_B_MESSAGE_TYPE =? tc')); [|discriminate].
  destruct (repr_nth idx r) as [i|] eqn:En; [|discriminate].
  destruct i; try discriminate. intros H. injection H as ->.
  rewrite repr_nth_list in En. apply nth_error_In in En.
  eapply depth_lookup_item; eassumption.
Qed.

Lemma items_msgs_in s l : In s (items_msgs l) -> In (IMsg s) (items_to_list l).
Proof.
  induction l as [|i t IH]; cbn [items_msgs items_to_list In]; [tauto|].
  destruct i; cbn [In]; try tauto.
  intros [->|H]; [left; reflexivity|right; auto].
Qed.

Lemma find_msgs_depth a n s : In s (find_msgs a n) -> (S (depth_msg s) <= depth_msg a)%nat.
Proof.
  unfold find_msgs, get_field. fold (lookup a n).
  destruct (lookup a n) as [[tc' r]|] eqn:E; [|intros []].
  destruct ((c_B_MESSAGE_TYPE =? c_B_ANY_TYPE) || (c_B_MESSAGE_TYPE =? tc')); [|intros []].
  destruct r as [i|l].
  - destruct i as [b|b|b|m0|id]; cbn [In]; try tauto.
    intros [->|[]]. eapply depth_lookup_item; [exact E|]. left. reflexivity.
  - intros H. apply items_msgs_in in H. eapply depth_lookup_item; [exact E|]. exact H.
Qed.
