(* Flt/FltLexProofs.v -- the lexer reads back what the documented grammar prints (C14): a token sequence printed
   with one blank after every token -- keywords and symbols by their table spelling, quoted strings between
   double quotes, user words as they are -- is lexed into exactly that token sequence, provided every user word is
   "lexable" (non-empty; no white space, quotes, or operator characters; not a keyword itself).  With
   FltParseStruct this gives parse_print: the printed form of a grammar expression parses to the filter it denotes. *)
From Coq Require Import List NArith Bool Strings.Byte Lia.
From Muscle Require Import Gen.Consts Msg.MsgDefs Msg.MsgModel Msg.MsgBytesProofs Flt.FltModel Flt.FltParse Flt.FltParseProofs
  Flt.FltParseStruct.
Import ListNotations.
Local Open Scope N_scope.

(* ------------------------------------------------------------------ printing *)

Definition tok_text (i : N) : list N := nth (N.to_nat i) c_qf_tok_strs [].

Definition print_tok (t : ltok) : list N :=
  if tk t =? c_LTOKEN_USERSTRING then (if tq t then 34 :: tval t ++ [34] else tval t)
  else tok_text (tk t).

Fixpoint print (ts : list ltok) : list N :=
  match ts with [] => [] | t :: r => print_tok t ++ 32 :: print r end.

(* ------------------------------------------------------------------ fixed tokens *)

(* every table entry followed by a blank is recognised as itself (no later entry and no synonym pre-empts it) *)
Lemma match_fixed_all rest :
  forallb (fun i => match match_token (tok_text i ++ 32 :: rest) with
                    | Some (j, n) => (j =? i) && (n =? len (tok_text i))
                    | None => false
                    end) (map N.of_nat (seq 0 32)) = true.
Proof. vm_compute. reflexivity. Qed.

Lemma match_fixed i :
  (i < c_LTOKEN_USERSTRING) ->
  forall rest, match_token (tok_text i ++ 32 :: rest) = Some (i, len (tok_text i)).
Proof.
  intros Hi rest. change c_LTOKEN_USERSTRING with 32 in Hi.
  assert (Hin : In i (map N.of_nat (seq 0 32))).
  { apply in_map_iff. exists (N.to_nat i). split; [lia|]. apply in_seq. lia. }
  pose proof (proj1 (forallb_forall _ _) (match_fixed_all rest) i Hin) as H. cbv beta in H.
  destruct (match_token (tok_text i ++ 32 :: rest)) as [[j n]|]; [|discriminate H].
  rewrite andb_true_iff, !N.eqb_eq in H. destruct H as [-> ->]. reflexivity.
Qed.

Lemma dropN_app_exact' {A} (a b : list A) : dropN (len a) (a ++ b) = b.
Proof. apply dropN_app_exact. Qed.

(* no token starts with a blank *)
Lemma lex_blank e : lex_next (32 :: e) = lex_next e.
Proof. reflexivity. Qed.

Lemma lex_fixed i rest :
  i < c_LTOKEN_USERSTRING ->
  lex_next (tok_text i ++ 32 :: rest) = LTok (fixed_tok i) (32 :: rest).
Proof.
  intros Hi. pose proof (match_fixed i Hi rest) as Hm.
  destruct (tok_text i ++ 32 :: rest) as [|c e] eqn:E.
  - destruct (tok_text i); discriminate E.
  - cbn [lex_next]. rewrite Hm. rewrite <- E. rewrite dropN_app_exact. reflexivity.
Qed.

(* ------------------------------------------------------------------ quoted strings *)

Lemma match_quote rest : match_token (34 :: rest) = None.
Proof. reflexivity. Qed.

Lemma split_at_quote_app txt rest :
  mem_char 34 txt = false -> split_at_quote (txt ++ 34 :: rest) = Some (txt, rest).
Proof.
  induction txt as [|c t IH]; intros H; cbn [app split_at_quote].
  - reflexivity.
  - unfold mem_char in H. cbn [existsb] in H. apply orb_false_iff in H. destruct H as [H1 H2].
    rewrite N.eqb_sym in H1. rewrite H1. rewrite (IH H2). reflexivity.
Qed.

Lemma lex_quoted txt rest :
  mem_char 34 txt = false ->
  lex_next (34 :: txt ++ 34 :: 32 :: rest) = LTok (user_tok txt true) (32 :: rest).
Proof.
  intros H. cbn [lex_next]. rewrite match_quote. cbn [N.eqb Pos.eqb].
  rewrite (split_at_quote_app txt (32 :: rest) H). reflexivity.
Qed.

(* ------------------------------------------------------------------ user words *)

(* a word the lexer takes as one user token when a blank follows it *)
Definition lexable (w : list N) : Prop :=
  w <> [] /\
  (forall rest, match_token (w ++ 32 :: rest) = None) /\           (* it is not itself (the start of) a keyword *)
  (forall rest, scan_word (w ++ 32 :: rest) = (w, 32 :: rest)) /\  (* nothing inside it ends it early *)
  match w with c :: _ => (c =? 34) = false /\ ((c =? 32) || (c =? 9) || (c =? 13) || (c =? 10)) = false | [] => True end.

Lemma lex_word w rest : lexable w -> lex_next (w ++ 32 :: rest) = LTok (user_tok w false) (32 :: rest).
Proof.
  intros [Hne [Hm [Hs Hc]]]. destruct w as [|c w]; [congruence|].
  cbn [app lex_next]. specialize (Hm rest). specialize (Hs rest). cbn [app] in Hm, Hs.
  rewrite Hm. destruct Hc as [Hq Hw]. rewrite Hq, Hw. rewrite Hs. reflexivity.
Qed.

(* a sufficient, purely character-level criterion: letters, digits and harmless punctuation only *)
Definition word_char (c : N) : bool :=
  is_alpha c || is_digit c || (c =? 46) || (c =? 44) || (c =? 45) || (c =? 43) || (c =? 58) || (c =? 95) || (c =? 47).
      (* . , - + : _ /   (no blank, quote, parenthesis, ! < > = & | ^) *)

(* all of them lie between '+' and 'z': no blank, no control character, no quote *)
Lemma word_char_range c : word_char c = true -> 43 <= c <= 122.
Proof.
  unfold word_char. rewrite !orb_true_iff, !N.eqb_eq.
  intros [[[[[[[[H|H]|H]|H]|H]|H]|H]|H]|H]; try (subst c; split; discriminate).
  - unfold is_alpha in H. rewrite orb_true_iff, !andb_true_iff, !N.leb_le in H. lia.
  - unfold is_digit in H. rewrite andb_true_iff, !N.leb_le in H. lia.
Qed.

(* no token and no synonym starts with such a character unless it is a letter *)
Definition head_ok (e : N * list N) : bool :=
  match snd e with [] => true | t0 :: _ => negb (word_char (lower t0)) || is_alpha (lower t0) end.

Lemma first_match_head c t tbl :
  word_char c = true -> is_alpha c = false -> forallb head_ok tbl = true -> first_match tbl (c :: t) = None.
Proof.
  intros Hw Ha. assert (Hl : lower c = c).
  { unfold lower. unfold is_alpha in Ha. apply orb_false_iff in Ha. destruct Ha as [-> _]. reflexivity. }
  induction tbl as [|[i [|t0 ts]] r IH]; cbn [forallb first_match]; [reflexivity|exact IH|].
  intros H. apply andb_true_iff in H. destruct H as [H0 Hr]. cbn [ci_prefix]. rewrite Hl.
  destruct (lower t0 =? c) eqn:E; [|rewrite andb_false_r; exact (IH Hr)].
  apply N.eqb_eq in E. unfold head_ok in H0. cbn [snd] in H0. rewrite E, Hw, Ha in H0. discriminate H0.
Qed.

Lemma match_token_word_char c t :
  word_char c = true -> is_alpha c = false -> match_token (c :: t) = None.
Proof.
  intros Hw Ha. unfold match_token. rewrite !(first_match_head c t) by (assumption || reflexivity). reflexivity.
Qed.

Lemma scan_word_chars w rest :
  forallb word_char w = true -> scan_word (w ++ 32 :: rest) = (w, 32 :: rest).
Proof.
  induction w as [|c w IH]; intros H; [reflexivity|].
  cbn [forallb] in H. apply andb_true_iff in H. destruct H as [Hc Hw].
  cbn [app scan_word]. rewrite (IH Hw), not_space_ge by (apply word_char_range in Hc; lia).
  destruct (is_alpha c) eqn:Ea; [reflexivity|]. rewrite (match_token_word_char c _ Hc Ea). reflexivity.
Qed.

(* ------------------------------------------------------------------ the token sequence *)

Definition tok_ok (t : ltok) : Prop :=
  if tk t =? c_LTOKEN_USERSTRING
  then (if tq t then mem_char 34 (tval t) = false else lexable (tval t))
  else tk t < c_LTOKEN_USERSTRING /\ tval t = [] /\ tq t = false.

Lemma lex_print_tok t rest : tok_ok t -> lex_next (print_tok t ++ 32 :: rest) = LTok t (32 :: rest).
Proof.
  unfold tok_ok, print_tok. destruct t as [k v q]. cbn [tk tval tq].
  destruct (k =? c_LTOKEN_USERSTRING) eqn:Ek.
  - apply N.eqb_eq in Ek. subst k. destruct q.
    + intros H. cbn [app]. rewrite <- app_assoc. cbn [app]. apply lex_quoted. exact H.
    + intros H. apply lex_word. exact H.
  - intros [Hk [-> ->]]. apply lex_fixed. exact Hk.
Qed.

Theorem lex_print : forall ts fuel,
  Forall tok_ok ts -> (length (print ts) < fuel)%nat -> lex_all fuel (print ts) = (ts, None).
Proof.
  induction ts as [|t r IH]; intros fuel F Hf.
  - destruct fuel; reflexivity.
  - inversion F as [|? ? Ft Fr]; subst. cbn [print] in *.
    destruct fuel as [|fuel]; [lia|]. cbn [lex_all].
    rewrite (lex_print_tok t (print r) Ft).
    (* the blank, then the rest *)
    assert (Hb : forall f e, lex_all f (32 :: e) = lex_all f e).
    { intros f e. destruct f; [reflexivity|]. cbn [lex_all]. rewrite lex_blank. reflexivity. }
    rewrite Hb, IH; [reflexivity|exact Fr|].
    rewrite app_length in Hf. cbn [length] in Hf. lia.
Qed.

(* ------------------------------------------------------------------ from the printed string to the denoted tree *)

Lemma ub_bytes_of (l : list N) : Forall (fun c => c < 256) l -> ub (bytes_of l) = l.
Proof.
  induction l as [|c l IH]; intros F; [reflexivity|]. inversion F as [|? ? Hc Hl]; subst.
  unfold ub, bytes_of in *. cbn [map]. rewrite IH by exact Hl. f_equal.
  rewrite N_of_byte_of_N. apply N.mod_small. exact Hc.
Qed.

Section PrintParse.
  Variable atof : list N -> N.
  Variable d2f : N -> N.

  (* parse_print: the string printed for a token-level expression of the documented grammar -- a body
     `[!] t1..tn` | `operand K operand ..`, operands `[!] ( body )`, any nesting -- is parsed into the filter the
     grammar denotes (or rejected exactly when the denotation is an error, e.g. an unknown operator for the type) *)
  Theorem parse_print_body b :
    wf_body b -> Forall tok_ok (toks_body b) -> Forall (fun c => c < 256) (print (toks_body b)) ->
    parse_expr atof d2f (bytes_of (print (toks_body b))) =
    match den_body atof d2f b with Ok f => Some f | _ => None end.
  Proof.
    intros Hwf Hok Hch. unfold parse_expr. rewrite (ub_bytes_of _ Hch).
    rewrite (lex_print (toks_body b) _ Hok) by lia. cbn [fst].
    rewrite (parse_body atof d2f b Hwf). destruct (den_body atof d2f b); reflexivity.
  Qed.
End PrintParse.

(* non-vacuity helpers: words made of letters, digits and . , - + : _ / that are not keywords are lexable *)
Lemma lexable_of_chars w :
  w <> [] -> forallb word_char w = true ->
  (forall rest, match_token (w ++ 32 :: rest) = None) ->
  lexable w.
Proof.
  intros Hne Hc Hm. split; [exact Hne|]. split; [exact Hm|]. split; [intros rest; apply scan_word_chars; exact Hc|].
  destruct w as [|c w]; [exact I|]. cbn [forallb] in Hc. apply andb_true_iff in Hc. destruct Hc as [Hc _].
  apply word_char_range in Hc. rewrite !orb_false_iff, !N.eqb_neq. lia.
Qed.
