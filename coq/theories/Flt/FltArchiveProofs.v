(* Flt/FltArchiveProofs.v -- a filter restored from its archived Message form is the filter that was archived
   (hence decides identically on every Message), and building a filter from ANY Message terminates cleanly (C14). *)
From Coq Require Import List NArith Bool Lia.
From Muscle Require Import Gen.Consts Msg.MsgDefs Msg.MsgModel Msg.MsgApi Msg.MsgBytesProofs
  Flt.FltModel Flt.FltArchive Flt.FltObject Flt.FltLemmas.
Import ListNotations.
Local Open Scope N_scope.

(* ------------------------------------------------------------------ the domain: members within their C++ types *)

Definition opt_nonempty (o : option bytes) : Prop := match o with Some b => len b <> 0 | None => True end.

Fixpoint wf_filter (f : qfilter) : Prop :=
  match f with
  | FWhat mn mx => mn < two32 /\ mx < two32                                   (* uint32 _minWhatCode, _maxWhatCode *)
  | FExists _ idx tc => idx < two32 /\ tc < two32                            (* uint32 _index, _typeCode *)
  | FNum _ _ idx op mop _ _ _ => idx < two32 /\ op < 256 /\ mop < 256        (* uint8 _op, _maskOp *)
  | FStr _ _ idx op _ _ => idx < two32 /\ op < 256
  | FRaw _ idx op tc val def =>
      idx < two32 /\ op < 256 /\ tc < two32 /\ opt_nonempty val /\ opt_nonempty def   (* a held ByteBuffer has bytes *)
  | FMsg _ idx kid _ => idx < two32 /\ wf_ofilter kid
  | FMin n kids => n < two32 /\ wf_flist kids
  | FMax n kids => n < two32 /\ wf_flist kids
  | FXor kids => wf_flist kids
  end
with wf_flist (l : flist) : Prop :=
  match l with LNil => True | LCons f t => wf_filter f /\ wf_flist t end
with wf_ofilter (o : ofilter) : Prop :=
  match o with ONone => True | OSome f => wf_filter f end.

Lemma uval_le_enc k v : v < 256 ^ N.of_nat k -> uval (8 * N.of_nat k) (le_enc k v) = v.
Proof.
  intros H. unfold uval. rewrite le_dec_le_enc, N.pow_mul_r. change (2 ^ 8) with 256.
  rewrite N.mod_mod by (apply N.pow_nonzero; discriminate). apply N.mod_small. exact H.
Qed.

(* ------------------------------------------------------------------ reading a written archive, member by member *)

Lemma nt_tc_not_any t : (nt_tc t =? c_B_ANY_TYPE) = false.
Proof. destruct t; reflexivity. Qed.

Lemma find_data_tc_num t i :
  find_data_tc (nt_tc t) i = match i with IFix bs => Some (DBytes bs) | _ => Some DOpaque end.
Proof. destruct t; reflexivity. Qed.

Lemma nt_size_elem t : elem_size (ftype_of_tc (nt_tc t)) = nt_size t.
Proof. destruct t; reflexivity. Qed.

Lemma items_msgs_map ms : forall l, items_to_list l = map IMsg ms -> items_msgs l = ms.
Proof.
  induction ms as [|m t IH]; intros l H; destruct l as [|i l']; cbn [items_to_list map items_msgs] in *;
    try discriminate; try reflexivity.
  injection H as -> H. rewrite (IH l' H). reflexivity.
Qed.

Section Readers.
  Variables (w : N) (ops : list field_op) (n : bytes).
  Let a := apply_ops ops (Msg w FNil).
  Let under := filter (named n) ops.          (* the Add calls under the name n *)

  Lemma find_string_written vs idx : under = piece n c_B_STRING_TYPE vs ->
    find_string a n idx = match nth_error vs (N.to_nat idx) with Some (IStr s) => Some s | _ => None end.
  Proof.
    intros H. unfold find_string, a. rewrite (find_item_written w ops n c_B_STRING_TYPE vs eq_refl H).
    destruct (nth_error vs (N.to_nat idx)) as [[]|]; reflexivity.
  Qed.

  Lemma find_msg_written vs idx : under = piece n c_B_MESSAGE_TYPE vs ->
    find_msg a n idx = match nth_error vs (N.to_nat idx) with Some (IMsg s) => Some s | _ => None end.
  Proof.
    intros H. unfold find_msg, a. rewrite (find_item_written w ops n c_B_MESSAGE_TYPE vs eq_refl H).
    destruct (nth_error vs (N.to_nat idx)) as [[]|]; reflexivity.
  Qed.

  Lemma find_fix_written t vs idx : under = piece n (nt_tc t) vs ->
    find_fix a n (nt_tc t) idx = match nth_error vs (N.to_nat idx) with Some (IFix bs) => Some bs | _ => None end.
  Proof.
    intros H. unfold find_fix, a. rewrite (find_data_written w ops n _ vs (nt_tc_not_any t) H).
    destruct (nth_error vs (N.to_nat idx)) as [i|]; [|reflexivity]. rewrite find_data_tc_num. destruct i; reflexivity.
  Qed.

  Lemma find_int_written tc wd vs : (tc =? c_B_ANY_TYPE) = false -> under = piece n tc vs ->
    find_int a n tc wd = match vs with IFix bs :: _ => Some (uval wd bs) | _ => None end.
  Proof.
    intros Hany H. unfold find_int, a. rewrite (find_item_written w ops n tc vs Hany H).
    destruct vs as [|[] ?]; reflexivity.
  Qed.

  (* CAddInt32(n, v, d) then GetInt32(n, d): the default stands for the value that was not written *)
  Lemma get_i32_cop v d : under = cop_i32 n v d -> v < two32 -> get_i32 a n d = v.
  Proof.
    unfold cop_i32, get_i32. intros H Hv. destruct (v =? d) eqn:E.
    - rewrite (find_int_written c_B_INT32_TYPE 32 [] eq_refl H). symmetry. apply N.eqb_eq. exact E.
    - rewrite (find_int_written c_B_INT32_TYPE 32 [_] eq_refl H). exact (uval_le_enc 4 v Hv).
  Qed.

  Lemma get_i8_cop v d : under = cop_i8 n v d -> v < 256 -> get_i8 a n d = v.
  Proof.
    unfold cop_i8, get_i8. intros H Hv. destruct (v =? d) eqn:E.
    - rewrite (find_int_written c_B_INT8_TYPE 8 [] eq_refl H). symmetry. apply N.eqb_eq. exact E.
    - rewrite (find_int_written c_B_INT8_TYPE 8 [_] eq_refl H). exact (uval_le_enc 1 v Hv).
  Qed.

  Lemma find_i8_written v : under = [op_i8 n v] -> v < 256 -> find_int a n c_B_INT8_TYPE 8 = Some v.
  Proof. intros H Hv. rewrite (find_int_written c_B_INT8_TYPE 8 [_] eq_refl H). f_equal. exact (uval_le_enc 1 v Hv). Qed.

  Lemma raw_of_cop b : under = cop_raw n b -> opt_nonempty b -> raw_of a n = b.
  Proof.
    unfold cop_raw, raw_of, a. intros H Hb. destruct b as [x|]; cbn [opt_nonempty] in Hb.
    - apply N.eqb_neq in Hb. rewrite Hb in H.
      rewrite (find_data_written w ops n c_B_RAW_TYPE [_] eq_refl H). cbn. rewrite Hb. reflexivity.
    - rewrite (find_data_written w ops n c_B_RAW_TYPE [] eq_refl H). reflexivity.
  Qed.

  Lemma find_msgs_written ms : under = piece n c_B_MESSAGE_TYPE (map IMsg ms) -> find_msgs a n = ms.
  Proof.
    intros H. destruct (field_written w ops n c_B_MESSAGE_TYPE _ eq_refl H) as [Ht Hi].
    unfold find_msgs, get_field, a. fold (lookup (apply_ops ops (Msg w FNil)) n).
    destruct (lookup (apply_ops ops (Msg w FNil)) n) as [[tc r]|]; cbn [typed items_of] in *.
    - subst tc. rewrite N.eqb_refl, orb_true_r.
      destruct r as [i|l]; cbn [repr_items] in Hi.
      + destruct ms as [|m [|m2 t]]; cbn [map] in Hi; try discriminate. injection Hi as ->. reflexivity.
      + apply items_msgs_map. exact Hi.
    - destruct ms; [reflexivity|discriminate].
  Qed.
End Readers.

Lemma filter_one_name n n' l :
  (forall o, In o l -> fst (fst o) = n') -> filter (named n) l = if bytes_eqb n n' then l else [].
Proof.
  induction l as [|o l IH]; intros H; cbn [filter]; [destruct (bytes_eqb n n'); reflexivity|].
  unfold named at 1. rewrite (H o (or_introl eq_refl)), IH by (intros o' Ho; apply H; right; exact Ho).
  destruct (bytes_eqb n n'); reflexivity.
Qed.

Lemma filter_cop_i32 n n' v d : filter (named n) (cop_i32 n' v d) = if bytes_eqb n n' then cop_i32 n' v d else [].
Proof. apply filter_one_name. unfold cop_i32. destruct (v =? d); [intros o []|intros o [<-|[]]; reflexivity]. Qed.

Lemma filter_cop_i8 n n' v d : filter (named n) (cop_i8 n' v d) = if bytes_eqb n n' then cop_i8 n' v d else [].
Proof. apply filter_one_name. unfold cop_i8. destruct (v =? d); [intros o []|intros o [<-|[]]; reflexivity]. Qed.

Lemma filter_cop_raw n n' b : filter (named n) (cop_raw n' b) = if bytes_eqb n n' then cop_raw n' b else [].
Proof.
  apply filter_one_name. unfold cop_raw. destruct b as [x|]; [|intros o []].
  destruct (len x =? 0); [intros o []|intros o [<-|[]]; reflexivity].
Qed.

Lemma filter_piece n n' tc vs : filter (named n) (piece n' tc vs) = if bytes_eqb n n' then piece n' tc vs else [].
Proof. apply filter_one_name. intros o Ho. apply in_map_iff in Ho. destruct Ho as [v [<- _]]. reflexivity. Qed.

Lemma filter_named_cons n o l : filter (named n) (o :: l) = (if named n o then [o] else []) ++ filter (named n) l.
Proof. cbn [filter]. destruct (named n o); reflexivity. Qed.

(* which Add calls are under a name: [filter] is pushed through the list; the literal field names are compared by
   evaluation *)
Ltac under_name :=
  unfold value_ops;
  rewrite ?filter_app, ?filter_named_cons, ?filter_cop_i32, ?filter_cop_i8, ?filter_cop_raw, ?filter_piece, ?app_nil_r;
  reflexivity.

Lemma load_value_written w name idx rest :
  filter (named nm_fn) rest = [] -> filter (named nm_idx) rest = [] -> idx < two32 ->
  load_value (apply_ops (value_ops name idx ++ rest) (Msg w FNil)) = Ok (name, idx).
Proof.
  intros Hf Hi Hidx. unfold load_value.
  rewrite (find_string_written _ _ _ [IStr name]), (get_i32_cop _ _ _ idx 0); try assumption; [reflexivity| |];
    unfold value_ops; cbn [filter app]; rewrite filter_app, filter_cop_i32, ?Hf, ?Hi, app_nil_r; reflexivity.
Qed.

Lemma what_to_archive f : msg_what (to_archive f) = what_of f.
Proof. destruct f; cbn [to_archive what_of]; apply what_apply_ops. Qed.

(* CreateQueryFilter(what) makes an object of the class whose TypeCode() that is; its SetFromArchive follows *)
Lemma from_level_class inner a f :
  msg_what a = what_of f ->
  from_level inner a =
  match f with
  | FWhat _ _ => let mn := get_i32 a nm_what_min 0 in Ok (FWhat mn (get_i32 a nm_what_max mn))
  | FExists _ _ _ => bind (load_value a) (fun p => Ok (FExists (fst p) (snd p) (get_i32 a nm_exists_type c_B_ANY_TYPE)))
  | FNum k _ _ _ _ _ _ _ => load_num k a
  | FStr nn _ _ _ _ _ => load_str nn a
  | FRaw _ _ _ _ _ _ => load_raw a
  | FMsg _ _ _ _ => load_msg inner a
  | FMin _ _ => bind (kids_of inner (find_msgs a nm_multi_kid)) (fun ks => Ok (FMin (get_i32 a nm_min_matches c_MUSCLE_NO_LIMIT) ks))
  | FMax _ _ => bind (kids_of inner (find_msgs a nm_multi_kid)) (fun ks => Ok (FMax (get_i32 a nm_max_matches 0) ks))
  | FXor _ => bind (kids_of inner (find_msgs a nm_multi_kid)) (fun ks => Ok (FXor ks))
  end.
Proof. intros H. unfold from_level. rewrite H. destruct f as [| |[[]|]|[]| | | | |]; reflexivity. Qed.

Definition subfilters (f : qfilter) : list qfilter :=
  match f with
  | FMsg _ _ (OSome k) _ => [k]
  | FMin _ kids | FMax _ kids | FXor kids => list_of_flist kids
  | _ => []
  end.

Lemma filter_sub_ind (P : qfilter -> Prop) :
  (forall f, (forall k, In k (subfilters f) -> P k) -> P f) -> forall f, P f.
Proof.
  intros H.
  apply (filter_mi P (fun l => forall k, In k (list_of_flist l) -> P k) (fun o => forall k, o = OSome k -> P k));
    try (intros; apply H; cbn [subfilters]; try assumption; intros k' []; fail).
  - (* FMsg *) intros name idx kid IH defmsg. apply H. destruct kid as [|k0]; cbn [subfilters]; [intros k' []|].
    intros k' [<-|[]]. apply IH. reflexivity.
  - (* LNil *) intros k [].
  - (* LCons *) intros f IHf tl IHt k [<-|Hk]; auto.
  - (* ONone *) intros k Hk. discriminate Hk.
  - (* OSome *) intros f IHf k Hk. injection Hk as <-. exact IHf.
Qed.

Lemma wf_flist_in l k : wf_flist l -> In k (list_of_flist l) -> wf_filter k.
Proof.
  induction l as [|f t IH]; cbn [list_of_flist In wf_flist]; [tauto|].
  intros [Hf Ht] [->|H]; auto.
Qed.

Lemma wf_sub f k : wf_filter f -> In k (subfilters f) -> wf_filter k.
Proof.
  destruct f as [| | | | |? ? [|k0] ?|? l|? l|l]; cbn [subfilters wf_filter wf_ofilter In]; try tauto.
  - (* FMsg *) intros [_ H] [<-|[]]. exact H.
  - (* FMin *) intros [_ H]. apply wf_flist_in, H.
  - (* FMax *) intros [_ H]. apply wf_flist_in, H.
  - (* FXor *) apply wf_flist_in.
Qed.

Definition kid_msgs (kids : flist) : list msg := map to_archive (list_of_flist kids).

Lemma kid_ops_piece kids : kid_ops kids = piece nm_multi_kid c_B_MESSAGE_TYPE (map IMsg (kid_msgs kids)).
Proof.
  unfold kid_msgs. induction kids as [|k tl IH]; cbn [kid_ops list_of_flist map piece]; [reflexivity|].
  rewrite IH. reflexivity.
Qed.

Lemma kids_of_ok inner kids :
  (forall k, In k (list_of_flist kids) -> inner (to_archive k) = Ok k) ->
  kids_of inner (kid_msgs kids) = Ok kids.
Proof.
  unfold kid_msgs. induction kids as [|k tl IH]; intros H; cbn [list_of_flist map kids_of]; [reflexivity|].
  rewrite (H k) by (left; reflexivity). cbn [bind].
  rewrite IH by (intros k' Hk; apply H; right; exact Hk). reflexivity.
Qed.

Lemma rt_level inner f :
  wf_filter f -> (forall k, In k (subfilters f) -> inner (to_archive k) = Ok k) ->
  from_level inner (to_archive f) = Ok f.
Proof.
  intros W Hk. rewrite (from_level_class inner _ f (what_to_archive f)).
  destruct f as [mn mx|name idx tc|k name idx op mop val msk def|nn name idx op val def|name idx op tc val def
                |name idx kid defmsg|n kids|n kids|kids]; cbn [wf_filter] in W; cbn [to_archive].
  - (* FWhat *) destruct W as [Hmn Hmx].
    rewrite (get_i32_cop _ _ _ mn 0), (get_i32_cop _ _ _ mx mn); [reflexivity|..]; try assumption; under_name.
  - (* FExists *) destruct W as [Hi Ht].
    rewrite load_value_written, (get_i32_cop _ _ _ tc c_B_ANY_TYPE); [reflexivity|..]; try assumption; under_name.
  - (* FNum *) destruct W as [Hi [Ho Hm]]. unfold load_num. cbv zeta. set (t := nk_type k). rewrite nt_size_elem, N.eqb_refl.
    set (vals := IFix val :: match def with Some d => [IFix d] | None => [] end).
    rewrite load_value_written; [cbn [bind fst snd]|try assumption; destruct def; under_name..].
    rewrite (find_fix_written _ _ nm_num_msk t [IFix msk]), !(find_fix_written _ _ nm_num_val t vals),
      (get_i8_cop _ _ _ op 0), (get_i8_cop _ _ _ mop 0);
      [destruct def; reflexivity|..]; try assumption; destruct def; under_name.
  - (* FStr *) destruct W as [Hi Ho]. unfold load_str.
    set (vals := IStr val :: match def with Some d => [IStr d] | None => [] end).
    rewrite load_value_written; [cbn [bind fst snd]|try assumption; destruct def; under_name..].
    rewrite !(find_string_written _ _ nm_str_val vals), (find_i8_written _ _ _ op);
      [destruct def; reflexivity|..]; try assumption; destruct def; under_name.
  - (* FRaw *) destruct W as [Hi [Ho [Ht [Hv Hd]]]]. unfold load_raw.
    rewrite load_value_written; [cbn [bind fst snd]|try assumption; under_name..].
    rewrite (find_i8_written _ _ _ op), (get_i32_cop _ _ _ tc c_B_ANY_TYPE), (raw_of_cop _ _ _ val), (raw_of_cop _ _ _ def);
      [reflexivity|..]; try assumption; under_name.
  - (* FMsg *) destruct W as [Hi _]. unfold load_msg.
    rewrite load_value_written; [cbn [bind fst snd]|try assumption; destruct kid, defmsg; under_name..].
    rewrite (find_msg_written _ _ _ (match kid with OSome k => [IMsg (to_archive k)] | ONone => [] end)),
      (find_msg_written _ _ _ (match defmsg with Some d => [IMsg d] | None => [] end));
      [|destruct kid, defmsg; under_name..].
    destruct kid as [|k]; cbn [nth_error N.to_nat bind]; [|rewrite (Hk k (or_introl eq_refl))]; destruct defmsg; reflexivity.
  - (* FMin *) destruct W as [Hn _].
    rewrite kid_ops_piece, (find_msgs_written _ _ _ (kid_msgs kids)), (kids_of_ok _ _ Hk), (get_i32_cop _ _ _ n c_MUSCLE_NO_LIMIT);
      [reflexivity|..]; try assumption; under_name.
  - (* FMax *) destruct W as [Hn _].
    rewrite kid_ops_piece, (find_msgs_written _ _ _ (kid_msgs kids)), (kids_of_ok _ _ Hk), (get_i32_cop _ _ _ n 0);
      [reflexivity|..]; try assumption; under_name.
  - (* FXor *) rewrite kid_ops_piece, (find_msgs_written _ _ _ (kid_msgs kids)), (kids_of_ok _ _ Hk); [reflexivity|]. under_name.
Qed.

Lemma sub_archive_depth f k : In k (subfilters f) -> (S (depth_msg (to_archive k)) <= depth_msg (to_archive f))%nat.
Proof.
  assert (Hmulti : forall kids tail w, filter (named nm_multi_kid) tail = [] -> In k (list_of_flist kids) ->
            (S (depth_msg (to_archive k)) <= depth_msg (apply_ops (kid_ops kids ++ tail) (Msg w FNil)))%nat).
  { intros kids tail w Ht Hin. apply (find_msgs_depth _ nm_multi_kid).
    rewrite (find_msgs_written _ _ _ (kid_msgs kids)) by (rewrite filter_app, kid_ops_piece, filter_piece, Ht; apply app_nil_r).
    apply in_map, Hin. }
  destruct f as [| | | | |name idx [|k0] defmsg|n kids|n kids|kids]; cbn [subfilters In to_archive]; try tauto.
  - (* FMsg *) intros [<-|[]]. apply (find_msg_depth _ nm_msg_kid 0).
    rewrite (find_msg_written _ _ _ [IMsg (to_archive k0)]); [reflexivity|]. destruct defmsg; under_name.
  - (* FMin *) apply Hmulti. under_name.
  - (* FMax *) apply Hmulti. under_name.
  - (* FXor *) rewrite <- (app_nil_r (kid_ops kids)). apply Hmulti. reflexivity.
Qed.

Lemma fdepth_list_in l k : In k (list_of_flist l) -> (fdepth k <= fdepth_list l)%nat.
Proof.
  induction l as [|f t IH]; cbn [list_of_flist In fdepth_list]; [tauto|].
  intros [->|H]; [lia|]. specialize (IH H). lia.
Qed.

(* ------------------------------------------------------------------ any Message at all: a clean failure or a filter *)

Definition clean {A} (r : res A) : Prop := match r with Ok _ | Err => True | Fuel | Crash => False end.

Lemma clean_bind {A B} (r : res A) (g : A -> res B) : clean r -> (forall x, r = Ok x -> clean (g x)) -> clean (bind r g).
Proof. destruct r; cbn [bind clean]; intros H Hg; try tauto. apply Hg. reflexivity. Qed.

Lemma kids_of_clean inner l : (forall s, In s l -> clean (inner s)) -> clean (kids_of inner l).
Proof.
  induction l as [|s t IH]; intros H; cbn [kids_of]; [exact I|].
  apply clean_bind; [apply H; left; reflexivity|]. intros f _.
  apply clean_bind; [apply IH; intros s' Hs; apply H; right; exact Hs|]. intros r _. exact I.
Qed.

Lemma load_value_clean a : clean (load_value a).
Proof. unfold load_value. destruct (find_string a nm_fn 0); exact I. Qed.

Lemma load_num_clean k a : clean (load_num k a).
Proof.
  unfold load_num. apply clean_bind; [apply load_value_clean|]. intros p _.
  destruct (find_fix a nm_num_val (nt_tc (nk_type k)) 0); [|exact I].
  destruct (negb (elem_size (ftype_of_tc (nt_tc (nk_type k))) =? nt_size (nk_type k))); exact I.
Qed.

Lemma load_str_clean nn a : clean (load_str nn a).
Proof.
  unfold load_str. apply clean_bind; [apply load_value_clean|]. intros p _.
  destruct (find_string a nm_str_val 0); [|exact I].
  destruct (find_int a nm_str_op c_B_INT8_TYPE 8); exact I.
Qed.

Lemma load_raw_clean a : clean (load_raw a).
Proof.
  unfold load_raw. apply clean_bind; [apply load_value_clean|]. intros p _.
  destruct (find_int a nm_raw_op c_B_INT8_TYPE 8); exact I.
Qed.

Lemma load_msg_clean inner a :
  (forall s, find_msg a nm_msg_kid 0 = Some s -> clean (inner s)) -> clean (load_msg inner a).
Proof.
  intros H. unfold load_msg. apply clean_bind; [apply load_value_clean|]. intros p _.
  destruct (find_msg a nm_msg_kid 0) as [s|]; [|exact I].
  apply clean_bind; [apply H; reflexivity|]. intros k _. exact I.
Qed.

Lemma from_level_clean inner a :
  (forall s, find_msg a nm_msg_kid 0 = Some s -> clean (inner s)) ->
  (forall s, In s (find_msgs a nm_multi_kid) -> clean (inner s)) ->
  clean (from_level inner a).
Proof.
  intros Hm Hk. unfold from_level.
  repeat match goal with
         | |- clean (if ?c then _ else _) => destruct c
         end;
  try exact I;
  try apply load_num_clean; try apply load_str_clean; try apply load_raw_clean;
  try (apply load_msg_clean; exact Hm);
  try (apply clean_bind; [apply load_value_clean|intros p _; exact I]);
  try (apply clean_bind; [apply kids_of_clean; exact Hk|intros ks _; exact I]).
Qed.

Lemma from_fuel_clean : forall n a, (depth_msg a <= n)%nat -> clean (from_fuel n a).
Proof.
  induction n as [|n IH]; intros a Hd.
  - destruct a as [w fs]. cbn [depth_msg] in Hd. lia.
  - cbn [from_fuel]. apply from_level_clean.
    + intros s Hs. apply IH. apply find_msg_depth in Hs. lia.
    + intros s Hs. apply IH. apply find_msgs_depth in Hs. lia.
Qed.

(* for EVERY Message offered as an archive, however malformed and however deeply nested, the
   factory returns either an error or a filter -- the model's fuel (= the nesting depth) always suffices, and no
   abort is reachable.  (What the C++ spends on it is stack depth linear in the nesting: finding F5.) *)
Theorem from_archive_total a : exists r, from_archive a = r /\ (r = Err \/ exists f, r = Ok f).
Proof.
  pose proof (from_fuel_clean (depth_msg a) a (le_n _)) as H. unfold from_archive.
  destruct (from_fuel (depth_msg a) a) as [f| | |]; cbn [clean] in H; try tauto.
  - eexists. split; [reflexivity|]. right. eexists. reflexivity.
  - eexists. split; [reflexivity|]. left. reflexivity.
Qed.

(* more fuel never changes an answer *)
Definition upto {A} (r1 r2 : res A) : Prop := clean r1 -> r2 = r1.

Lemma upto_bind {A B} (r1 r2 : res A) (g1 g2 : A -> res B) :
  upto r1 r2 -> (forall x, upto (g1 x) (g2 x)) -> upto (bind r1 g1) (bind r2 g2).
Proof.
  unfold upto. destruct r1; cbn [bind clean]; intros H Hg Hc; try tauto; rewrite (H I); [apply Hg, Hc|reflexivity].
Qed.

Lemma kids_of_upto i1 i2 l : (forall s, upto (i1 s) (i2 s)) -> upto (kids_of i1 l) (kids_of i2 l).
Proof.
  intros H. induction l as [|s t IH]; cbn [kids_of]; [intros _; reflexivity|].
  apply upto_bind; [apply H|]. intros f. apply upto_bind; [exact IH|]. intros r _. reflexivity.
Qed.

Lemma from_level_upto i1 i2 a : (forall s, upto (i1 s) (i2 s)) -> upto (from_level i1 a) (from_level i2 a).
Proof.
  intros H. unfold from_level.
  assert (Hmulti : forall g : flist -> res qfilter, upto (bind (kids_of i1 (find_msgs a nm_multi_kid)) g) (bind (kids_of i2 (find_msgs a nm_multi_kid)) g)).
  { intros g. apply upto_bind; [apply kids_of_upto, H|intros ks _; reflexivity]. }
  repeat match goal with
         | |- upto (if ?c then _ else _) _ => destruct c
         end; try (intros _; reflexivity); try apply Hmulti.
  (* the class that is left: MessageQueryFilter, which recurses into its "kid" sub-Message *)
  unfold load_msg. apply upto_bind; [intros _; reflexivity|]. intros p.
  destruct (find_msg a nm_msg_kid 0) as [s|]; [|intros _; reflexivity].
  apply upto_bind; [apply H|]. intros k _. reflexivity.
Qed.

Lemma from_fuel_mono : forall n a r, from_fuel n a = r -> clean r -> forall k, from_fuel (n + k) a = r.
Proof.
  intros n a r <- Hc k. revert a Hc. induction n as [|n IH]; intros a Hc; [destruct Hc|].
  cbn [plus from_fuel] in *. exact (from_level_upto _ _ a (fun s => IH s) Hc).
Qed.

(* restoring the archive of a filter gives back that very filter (from_archive's fuel suffices:
   a sub-filter's archive lies strictly deeper, and more fuel never changes an answer) *)
Theorem archive_roundtrip f : wf_filter f -> from_archive (to_archive f) = Ok f.
Proof.
  unfold from_archive. induction f as [f IH] using filter_sub_ind. intros W.
  destruct (depth_msg (to_archive f)) as [|d] eqn:D; [destruct (to_archive f); discriminate D|].
  cbn [from_fuel]. apply rt_level; [exact W|]. intros k Hk.
  pose proof (sub_archive_depth f k Hk) as Hd. rewrite D in Hd.
  replace d with (depth_msg (to_archive k) + (d - depth_msg (to_archive k)))%nat by lia.
  apply from_fuel_mono; [apply (IH k Hk), (wf_sub f k W Hk)|exact I].
Qed.
