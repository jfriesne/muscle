(* Flt/FltDocProofs.v -- each operator of the raw-data and string filters accepts exactly what its documentation
   says (C14): the C++ forms (length guards + memcmp/strncmp on an explicit length, MemMem / strstr / StrcasestrEx
   scans) are stated here as the list relations they are documented to be:
     equality, lexicographic order on unsigned bytes, "starts with", "ends with", "contains". *)
From Coq Require Import List NArith Bool Strings.Byte Lia.
From Muscle Require Import Gen.Consts Msg.MsgDefs Msg.MsgModel Msg.MsgBytesProofs Flt.FltModel Flt.FltListLemmas Flt.FltNumProofs.
Import ListNotations.
Local Open Scope N_scope.

(* ------------------------------------------------------------------ memcmp on the common length *)

Lemma len_ub (a : bytes) : len (ub a) = len a.
Proof. apply len_map. Qed.

Lemma leqb_sym (a b : list N) : leqb a b = leqb b a.
Proof.
  destruct (leqb a b) eqn:E1; destruct (leqb b a) eqn:E2; try reflexivity.
  - apply leqb_eq in E1. subst b. rewrite leqb_refl in E2. discriminate.
  - apply leqb_eq in E2. subst b. rewrite leqb_refl in E1. discriminate.
Qed.

Lemma negb_iff b (P : Prop) : (b = true <-> P) -> (negb b = true <-> ~ P).
Proof. destruct b; intros [H1 H2]; split; try discriminate; auto. intros _ HP. discriminate (H2 HP). Qed.

Lemma mem_eq_leqb n a b : mem_eq n a b = leqb (takeN n (ub a)) (takeN n (ub b)).
Proof. reflexivity. Qed.

Lemma takeN_ub_all (a : bytes) : takeN (len a) (ub a) = ub a.
Proof. rewrite <- (len_ub a). apply takeN_all. Qed.

Lemma ub_dropN n (a : bytes) : dropN n (ub a) = ub (dropN n a).
Proof. apply dropN_map. Qed.

(* ------------------------------------------------------------------ RawDataQueryFilter operators *)

Section Raw.
  Variables my his : bytes.      (* _value's bytes; the bytes found in the Message (or the default) *)

  Theorem raw_equal_to : raw_op c_RQF_OP_EQUAL_TO my his = true <-> his = my.
  Proof.
    cbn. rewrite andb_true_iff, N.eqb_eq, mem_eq_leqb, leqb_eq. split.
    - intros [Hl H]. replace (N.min (len my) (len his)) with (len my) in H by lia.
      rewrite takeN_ub_all in H. rewrite <- Hl in H. rewrite takeN_ub_all in H.
      apply ub_inj. symmetry. exact H.
    - intros ->. split; reflexivity.
  Qed.

  Theorem raw_not_equal_to : raw_op c_RQF_OP_NOT_EQUAL_TO my his = true <-> his <> my.
  Proof. cbn. rewrite <- negb_andb. exact (negb_iff _ _ raw_equal_to). Qed.

  (* the byte-string order: lexicographic on unsigned bytes, a proper prefix being smaller *)
  Lemma raw_cmp_split :
    lex_cmp (ub his) (ub my) =
    match memcmp (N.min (len my) (len his)) his my with
    | Eq => N.compare (len his) (len my)
    | c => c
    end.
  Proof.
    rewrite lex_cmp_split, !len_ub, (N.min_comm (len his) (len my)). reflexivity.
  Qed.

  Theorem raw_less_than : raw_op c_RQF_OP_LESS_THAN my his = true <-> lex_cmp (ub his) (ub my) = Lt.
  Proof.
    cbn. rewrite raw_cmp_split. destruct (memcmp _ his my); try (split; congruence).
    rewrite N.ltb_lt, N.compare_lt_iff. reflexivity.
  Qed.

  Theorem raw_greater_than : raw_op c_RQF_OP_GREATER_THAN my his = true <-> lex_cmp (ub his) (ub my) = Gt.
  Proof.
    cbn. rewrite raw_cmp_split. destruct (memcmp _ his my); try (split; congruence).
    rewrite N.ltb_lt, N.compare_gt_iff. reflexivity.
  Qed.

  Theorem raw_less_or_equal : raw_op c_RQF_OP_LESS_THAN_OR_EQUAL_TO my his = true <-> lex_cmp (ub his) (ub my) <> Gt.
  Proof.
    cbn. rewrite raw_cmp_split. destruct (memcmp _ his my); try (split; congruence).
    rewrite N.leb_le, N.compare_gt_iff. lia.
  Qed.

  Theorem raw_greater_or_equal : raw_op c_RQF_OP_GREATER_THAN_OR_EQUAL_TO my his = true <-> lex_cmp (ub his) (ub my) <> Lt.
  Proof.
    cbn. rewrite raw_cmp_split. destruct (memcmp _ his my); try (split; congruence).
    rewrite N.leb_le, N.compare_lt_iff. lia.
  Qed.
End Raw.

Lemma raw_prefix_form p s :
  (len p <=? len s) && mem_eq (N.min (len p) (len s)) p s = true <-> exists t, s = p ++ t.
Proof.
  rewrite <- ub_prefix, <- prefix_guard, !len_ub.
  destruct (len p <=? len s) eqn:E; cbn [andb]; [|tauto].
  apply N.leb_le in E. replace (N.min (len p) (len s)) with (len p) by lia.
  rewrite mem_eq_leqb, takeN_ub_all, leqb_sym. reflexivity.
Qed.

Lemma raw_suffix_form p s :
  (len p <=? len s) && mem_eq (N.min (len p) (len s)) (dropN (len p - N.min (len p) (len s)) p) (dropN (len s - N.min (len p) (len s)) s) = true
  <-> exists t, s = t ++ p.
Proof.
  rewrite <- ub_suffix, <- suffix_guard, !len_ub.
  destruct (len p <=? len s) eqn:E; cbn [andb]; [|tauto].
  apply N.leb_le in E. replace (N.min (len p) (len s)) with (len p) by lia.
  rewrite N.sub_diag, dropN_0, mem_eq_leqb, takeN_ub_all, <- ub_dropN.
  assert (Hl : len (dropN (len s - len p) (ub s)) = len p) by (rewrite len_dropN, len_ub; lia).
  rewrite <- Hl at 1. rewrite takeN_all, leqb_sym. reflexivity.
Qed.

Theorem raw_start_of my his : raw_op c_RQF_OP_START_OF my his = true <-> exists t, my = his ++ t.
Proof.
  cbn. rewrite N.min_comm. apply raw_prefix_form.
Qed.

Theorem raw_end_of my his : raw_op c_RQF_OP_END_OF my his = true <-> exists t, my = t ++ his.
Proof.
  cbn. rewrite N.min_comm. apply raw_suffix_form.
Qed.

Lemma memmem_scan_scan_n look_for : forall k look_in,
  0 < len look_for -> memmem_scan k look_in look_for = scan_n k (ub look_for) (ub look_in).
Proof.
  induction k as [|k IH]; intros look_in Hp; cbn [memmem_scan scan_n]; [reflexivity|].
  rewrite IH by exact Hp. rewrite ub_dropN. f_equal.
  destruct look_for as [|y f]; [cbn [len] in Hp; lia|].
  destruct look_in as [|x i].
  - symmetry. apply takeN_short_neq. rewrite !len_ub. cbn [len]. lia.
  - rewrite len_ub, mem_eq_leqb, takeN_ub_all.
    destruct (leqb (takeN (len (y :: f)) (ub (x :: i))) (ub (y :: f))) eqn:E; [|apply andb_false_r].
    rewrite andb_true_r. apply leqb_eq in E. cbn [ub map len takeN] in E.
    destruct (N.succ (len f) =? 0) eqn:Ez; [apply N.eqb_eq in Ez; lia|].
    injection E as E _. apply N_of_byte_inj in E. subst y. apply byte_eqb_refl.
Qed.

Lemma infixb_same_len (p s : list N) : len p = len s -> infixb p s = leqb s p.
Proof.
  intros H. destruct s as [|x t]; cbn [infixb].
  - cbn [len] in H. apply len_zero_nil in H. subst p. reflexivity.
  - rewrite H, takeN_all, N.leb_refl, andb_true_r.
    rewrite infixb_short; [apply orb_false_r|]. cbn [len] in H. lia.
Qed.

Lemma memmem_infix look_in look_for : memmem look_in look_for = true <-> exists a b, look_in = a ++ look_for ++ b.
Proof.
  rewrite <- ub_infix, <- infixb_spec. unfold memmem.
  destruct (len look_for =? 0) eqn:E0.
  - apply N.eqb_eq in E0. apply len_zero_nil in E0. subst look_for. split; [intros _|reflexivity].
    apply infixb_spec. exists [], (ub look_in). reflexivity.
  - apply N.eqb_neq in E0.
    destruct (len look_for =? len look_in) eqn:E1.
    + apply N.eqb_eq in E1. rewrite infixb_same_len by (rewrite !len_ub; exact E1).
      rewrite mem_eq_leqb, takeN_ub_all, <- E1, takeN_ub_all. reflexivity.
    + apply N.eqb_neq in E1. destruct (len look_for <? len look_in) eqn:E2.
      * apply N.ltb_lt in E2. rewrite memmem_scan_scan_n by lia.
        rewrite scan_n_infixb; [reflexivity|rewrite !len_ub; lia|rewrite !len_ub; f_equal; lia|rewrite len_ub; lia].
      * apply N.ltb_ge in E2. rewrite infixb_short by (rewrite !len_ub; lia). reflexivity.
Qed.

Theorem raw_contains my his : raw_op c_RQF_OP_CONTAINS my his = true <-> exists a b, his = a ++ my ++ b.
Proof. apply memmem_infix. Qed.

Theorem raw_subset_of my his : raw_op c_RQF_OP_SUBSET_OF my his = true <-> exists a b, my = a ++ his ++ b.
Proof. apply memmem_infix. Qed.

(* an operator code outside the enumeration matches nothing *)
Theorem raw_unknown_op op my his : c_RQF_NUM_RAWDATA_OPERATORS <= op -> raw_op op my his = false.
Proof. intros H. unfold raw_op. rewrite !(eqb_above op _ _ H) by reflexivity. reflexivity. Qed.

(* ------------------------------------------------------------------ StringQueryFilter operators *)

Lemma len_lb (a : bytes) : len (lb a) = len a.
Proof. unfold lb. rewrite len_map. apply len_ub. Qed.

Lemma len_nonzero {A} (l : list A) : (0 <? len l) = true <-> l <> [].
Proof.
  rewrite N.ltb_lt. destruct l; cbn [len]; split; intros H; try lia; try congruence.
Qed.

Lemma strcasestr_ex_infix (h n : list N) :
  strcasestr_ex h n = true <-> h <> [] /\ n <> [] /\ exists a b, h = a ++ n ++ b.
Proof.
  unfold strcasestr_ex. rewrite <- infixb_spec.
  destruct (len h =? 0) eqn:Eh.
  - apply N.eqb_eq in Eh. apply len_zero_nil in Eh. subst h. cbn [orb]. split; [discriminate|]. intros [H _]. congruence.
  - destruct (len n =? 0) eqn:En; cbn [orb].
    + apply N.eqb_eq in En. apply len_zero_nil in En. subst n. split; [discriminate|]. intros [_ [H _]]. congruence.
    + apply N.eqb_neq in Eh. apply N.eqb_neq in En.
      assert (Hh : h <> []) by (intros ->; apply Eh; reflexivity).
      assert (Hn : n <> []) by (intros ->; apply En; reflexivity).
      destruct (len n <=? len h) eqn:El.
      * apply N.leb_le in El. rewrite scan_n_infixb by (try reflexivity; lia). tauto.
      * apply N.leb_gt in El. rewrite infixb_short by exact El. split; [discriminate|]. intros [_ [_ H]]. discriminate.
Qed.

Lemma str_contains_form (p t : bytes) :
  (0 <? len t) && scan_from (ub p) (ub t) = true <-> t <> [] /\ exists a b, t = a ++ p ++ b.
Proof. rewrite andb_true_iff, len_nonzero, scan_from_infixb, infixb_spec, ub_infix. reflexivity. Qed.

Lemma str_contains_ic_form (p t : bytes) :
  (0 <? len t) && strcasestr_ex (lb t) (lb p) = true <-> t <> [] /\ p <> [] /\ exists a b, lb t = a ++ lb p ++ b.
Proof.
  rewrite andb_true_iff, len_nonzero, strcasestr_ex_infix.
  assert (Hnil : forall x : bytes, lb x <> [] <-> x <> []) by (intros []; cbn; split; congruence).
  rewrite !Hnil. tauto.
Qed.

Section Str.
  Variable smatch : N -> bytes -> bytes -> bool.
  Variables v s : bytes.       (* _value; the String found in the Message (or the default) *)

  Lemma str_eq_form (f : bytes -> list N) :
    (forall a, len (f a) = len a) ->
    (len s =? len v) && leqb (f s) (f v) = true <-> f s = f v.
  Proof.
    intros Hlen. rewrite andb_true_iff, N.eqb_eq, leqb_eq. split; [tauto|].
    intros H. split; [|exact H]. rewrite <- (Hlen s), <- (Hlen v), H. reflexivity.
  Qed.

  Theorem str_equal_to : str_op smatch c_SQF_OP_EQUAL_TO v s = true <-> s = v.
  Proof.
    cbn. rewrite (str_eq_form ub len_ub). split; [apply ub_inj|intros ->; reflexivity].
  Qed.

  Theorem str_not_equal_to : str_op smatch c_SQF_OP_NOT_EQUAL_TO v s = true <-> s <> v.
  Proof. exact (negb_iff _ _ str_equal_to). Qed.

  (* operator<, >, <=, >= are strcmp: the lexicographic order on unsigned chars *)
  Theorem str_less_than : str_op smatch c_SQF_OP_LESS_THAN v s = true <-> lex_cmp (ub s) (ub v) = Lt.
  Proof. cbn. destruct (lex_cmp (ub s) (ub v)); split; congruence. Qed.
  Theorem str_greater_than : str_op smatch c_SQF_OP_GREATER_THAN v s = true <-> lex_cmp (ub s) (ub v) = Gt.
  Proof. cbn. destruct (lex_cmp (ub s) (ub v)); split; congruence. Qed.
  Theorem str_less_or_equal : str_op smatch c_SQF_OP_LESS_THAN_OR_EQUAL_TO v s = true <-> lex_cmp (ub s) (ub v) <> Gt.
  Proof. cbn. destruct (lex_cmp (ub s) (ub v)); split; congruence. Qed.
  Theorem str_greater_or_equal : str_op smatch c_SQF_OP_GREATER_THAN_OR_EQUAL_TO v s = true <-> lex_cmp (ub s) (ub v) <> Lt.
  Proof. cbn. destruct (lex_cmp (ub s) (ub v)); split; congruence. Qed.

  Lemma str_prefix_form (f : bytes -> list N) (p t : bytes) :
    (forall a, len (f a) = len a) ->
    (len p <=? len t) && leqb (takeN (len p) (f t)) (f p) = true <-> exists r, f t = f p ++ r.
  Proof. intros Hlen. rewrite <- prefix_guard, !Hlen. reflexivity. Qed.

  Lemma str_suffix_form (f : bytes -> list N) (p t : bytes) :
    (forall a, len (f a) = len a) ->
    (len p <=? len t) && leqb (dropN (len t - len p) (f t)) (f p) = true <-> exists r, f t = r ++ f p.
  Proof. intros Hlen. rewrite <- suffix_guard, !Hlen. reflexivity. Qed.

  Theorem str_starts_with : str_op smatch c_SQF_OP_STARTS_WITH v s = true <-> exists t, s = v ++ t.
  Proof. rewrite <- ub_prefix. apply (str_prefix_form ub v s len_ub). Qed.
  Theorem str_ends_with : str_op smatch c_SQF_OP_ENDS_WITH v s = true <-> exists t, s = t ++ v.
  Proof. rewrite <- ub_suffix. apply (str_suffix_form ub v s len_ub). Qed.
  Theorem str_start_of : str_op smatch c_SQF_OP_START_OF v s = true <-> exists t, v = s ++ t.
  Proof. rewrite <- ub_prefix. apply (str_prefix_form ub s v len_ub). Qed.
  Theorem str_end_of : str_op smatch c_SQF_OP_END_OF v s = true <-> exists t, v = t ++ s.
  Proof. rewrite <- ub_suffix. apply (str_suffix_form ub s v len_ub). Qed.

  (* String::IndexOf(x) >= 0: an EMPTY subject contains nothing, not even the empty string (the code's
     `fromIndex < Length()` test); otherwise strstr's "x occurs in it" *)
  Theorem str_contains : str_op smatch c_SQF_OP_CONTAINS v s = true <-> s <> [] /\ exists a b, s = a ++ v ++ b.
  Proof. apply str_contains_form. Qed.
  Theorem str_substring_of : str_op smatch c_SQF_OP_SUBSTRING_OF v s = true <-> v <> [] /\ exists a b, v = a ++ s ++ b.
  Proof. apply str_contains_form. Qed.

  (* the case-insensitive operators are the same relations on the lower-cased strings ... *)
  Theorem str_not_equal_to_ic : str_op smatch c_SQF_OP_NOT_EQUAL_TO_IGNORECASE v s = true <-> lb s <> lb v.
  Proof. exact (negb_iff _ _ (str_eq_form lb len_lb)). Qed.
  Theorem str_less_than_ic : str_op smatch c_SQF_OP_LESS_THAN_IGNORECASE v s = true <-> lex_cmp (lb s) (lb v) = Lt.
  Proof. cbn. destruct (lex_cmp (lb s) (lb v)); split; congruence. Qed.
  Theorem str_greater_than_ic : str_op smatch c_SQF_OP_GREATER_THAN_IGNORECASE v s = true <-> lex_cmp (lb s) (lb v) = Gt.
  Proof. cbn. destruct (lex_cmp (lb s) (lb v)); split; congruence. Qed.
  Theorem str_less_or_equal_ic : str_op smatch c_SQF_OP_LESS_THAN_OR_EQUAL_TO_IGNORECASE v s = true <-> lex_cmp (lb s) (lb v) <> Gt.
  Proof. cbn. destruct (lex_cmp (lb s) (lb v)); split; congruence. Qed.
  Theorem str_greater_or_equal_ic : str_op smatch c_SQF_OP_GREATER_THAN_OR_EQUAL_TO_IGNORECASE v s = true <-> lex_cmp (lb s) (lb v) <> Lt.
  Proof. cbn. destruct (lex_cmp (lb s) (lb v)); split; congruence. Qed.
  Theorem str_starts_with_ic : str_op smatch c_SQF_OP_STARTS_WITH_IGNORECASE v s = true <-> exists t, lb s = lb v ++ t.
  Proof. apply (str_prefix_form lb v s len_lb). Qed.
  Theorem str_ends_with_ic : str_op smatch c_SQF_OP_ENDS_WITH_IGNORECASE v s = true <-> exists t, lb s = t ++ lb v.
  Proof. apply (str_suffix_form lb v s len_lb). Qed.
  Theorem str_start_of_ic : str_op smatch c_SQF_OP_START_OF_IGNORECASE v s = true <-> exists t, lb v = lb s ++ t.
  Proof. apply (str_prefix_form lb s v len_lb). Qed.
  Theorem str_end_of_ic : str_op smatch c_SQF_OP_END_OF_IGNORECASE v s = true <-> exists t, lb v = t ++ lb s.
  Proof. apply (str_suffix_form lb s v len_lb). Qed.

  (* ... except that IndexOfIgnoreCase never finds an empty needle (StrcasestrEx returns NULL for needleLen == 0) *)
  Theorem str_substring_of_ic :
    str_op smatch c_SQF_OP_SUBSTRING_OF_IGNORECASE v s = true <-> v <> [] /\ s <> [] /\ exists a b, lb v = a ++ lb s ++ b.
  Proof. apply str_contains_ic_form. Qed.

  (* the four pattern operators are StringMatcher's (property C15) *)
  Theorem str_pattern_ops op :
    In op [c_SQF_OP_SIMPLE_WILDCARD_MATCH; c_SQF_OP_REGULAR_EXPRESSION_MATCH;
           c_SQF_OP_SIMPLE_WILDCARD_MATCH_IGNORECASE; c_SQF_OP_REGULAR_EXPRESSION_MATCH_IGNORECASE] ->
    str_op smatch op v s = smatch op v s.
  Proof. cbn [In]. intros [<-|[<-|[<-|[<-|[]]]]]; reflexivity. Qed.

  Theorem str_unknown_op op : c_SQF_NUM_STRING_OPERATORS <= op -> str_op smatch op v s = false.
  Proof. intros H. unfold str_op. rewrite !(eqb_above op _ _ H) by reflexivity. reflexivity. Qed.
End Str.
