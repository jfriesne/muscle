(* C12 -- proofs about the MiniPacketTunnelIOGateway model (Gw/MiniTunnel.v).

   zlib is external: the theorems are stated in a Section whose variables stand for
   ZLibCodec::Deflate(independent=true) / ZLibCodec::Inflate and whose single hypothesis
   (whatever deflate produced, inflate turns back into the input) becomes a premise. *)
From Coq Require Import List NArith Bool Lia.
From Coq Require Import Strings.Byte.
From Muscle Require Import Common.LE Gen.Consts Gw.Tunnel Gw.TunnelProofs Gw.MiniTunnel.
Import ListNotations.
Local Open Scope N_scope.

(* ------------------------------------------------------------------ translated constants *)

Lemma PHS_val : PHS = 12. Proof. reflexivity. Qed.
Lemma CHS_val : CHS = 4. Proof. reflexivity. Qed.
Lemma PID_MOD_val : PID_MOD = 2 ^ 24. Proof. reflexivity. Qed.
Lemma CL_SHIFT_val : CL_SHIFT = 24. Proof. reflexivity. Qed.
Lemma W2_val : 2 * c_C12_SIZEOF_UINT32 = 8. Proof. reflexivity. Qed.

(* ------------------------------------------------------------------ chunks *)

Lemma lenN_enc_chunk (m : msg) : lenN (enc_chunk m) = CHS + lenN m.
Proof. unfold enc_chunk. rewrite lenN_app, lenN_le32, CHS_val. reflexivity. Qed.

Lemma enc_chunks_cons m ms : enc_chunks (m :: ms) = enc_chunk m ++ enc_chunks ms.
Proof. reflexivity. Qed.

Lemma enc_chunks_app a b : enc_chunks (a ++ b) = enc_chunks a ++ enc_chunks b.
Proof. unfold enc_chunks. now rewrite map_app, concat_app. Qed.

Lemma length_enc_chunks ms : (length ms <= length (enc_chunks ms))%nat.
Proof.
  induction ms as [|m ms IH]; [cbn; lia|].
  rewrite enc_chunks_cons, app_length. cbn [length].
  pose proof (lenN_enc_chunk m) as H. unfold lenN in H. rewrite CHS_val in H. lia.
Qed.

Lemma mparse_size fuel (m : msg) rest :
  lenN m < two32 ->
  mparse (S fuel) (le32 (lenN m) ++ rest) =
    if lenN m <=? lenN rest then takeN (lenN m) rest :: mparse fuel (dropN (lenN m) rest) else [].
Proof.
  intros Hm. cbn [mparse].
  assert (HL : (CHS <=? lenN (le32 (lenN m) ++ rest)) = true).
  { apply N.leb_le. rewrite lenN_app, lenN_le32, CHS_val. lia. }
  now rewrite HL, rd32_le32, u32_small.
Qed.

Lemma mparse_step fuel (m : msg) tail :
  lenN m < two32 -> mparse (S fuel) (enc_chunk m ++ tail) = m :: mparse fuel tail.
Proof.
  intros Hm. unfold enc_chunk. rewrite <- app_assoc, mparse_size by exact Hm.
  assert (HC : (lenN m <=? lenN (m ++ tail)) = true) by (apply N.leb_le; rewrite lenN_app; lia).
  now rewrite HC, takeN_app_exact, dropN_app_exact.
Qed.

Lemma mparse_enc ms : forall fuel,
  Forall (fun m => lenN m < two32) ms -> (length ms <= fuel)%nat ->
  mparse fuel (enc_chunks ms) = ms.
Proof.
  induction ms as [|m ms IH]; intros fuel Hs Hf.
  - destruct fuel; reflexivity.
  - destruct fuel as [|fuel]; [cbn in Hf; lia|]. inversion Hs as [|? ? Hm Hms]; subst.
    cbn [length] in Hf. rewrite enc_chunks_cons, mparse_step, IH by (assumption || lia). reflexivity.
Qed.

(* a receiver with a smaller MTU sees a prefix of the chunk sequence: it extracts some of the leading chunks *)
Lemma mparse_truncated ms : forall fuel k,
  Forall (fun m => lenN m < two32) ms ->
  exists ms1 ms2, ms = ms1 ++ ms2 /\ mparse fuel (takeN k (enc_chunks ms)) = ms1.
Proof.
  induction ms as [|m ms IH]; intros fuel k Hs.
  - exists [], []. unfold takeN. cbn [enc_chunks map concat]. rewrite firstn_nil. now destruct fuel.
  - inversion Hs as [|? ? Hm Hms]; subst. rewrite enc_chunks_cons.
    assert (Hnone : mparse fuel (takeN k (enc_chunk m ++ enc_chunks ms)) = [] ->
                    exists ms1 ms2, m :: ms = ms1 ++ ms2 /\ mparse fuel (takeN k (enc_chunk m ++ enc_chunks ms)) = ms1).
    { intros E. now exists [], (m :: ms). }
    destruct fuel as [|fuel]; [now apply Hnone|].
    destruct (N.le_gt_cases (lenN (enc_chunk m)) k) as [Hk|Hk].
    + rewrite takeN_app_ge in * by exact Hk.
      destruct (IH fuel (k - lenN (enc_chunk m)) Hms) as (ms1 & ms2 & -> & E).
      exists (m :: ms1), ms2. split; [reflexivity|]. now rewrite mparse_step, E.
    + apply Hnone. rewrite takeN_app_le by lia. rewrite lenN_enc_chunk, CHS_val in Hk.
      destruct (N.lt_ge_cases k 4) as [Hk2|Hk2].
      * cbn [mparse]. assert (E : (CHS <=? lenN (takeN k (enc_chunk m))) = false).
        { apply N.leb_gt. rewrite lenN_takeN, CHS_val. lia. }
        now rewrite E.
      * unfold enc_chunk. rewrite takeN_app_ge by (rewrite lenN_le32; exact Hk2).
        rewrite mparse_size by exact Hm.
        assert (E : (lenN m <=? lenN (takeN (k - lenN (le32 (lenN m))) m)) = false).
        { apply N.leb_gt. rewrite lenN_takeN, lenN_le32. lia. }
        now rewrite E.
Qed.

(* ------------------------------------------------------------------ the header word *)

Lemma land_low_shift pid lvl : pid < 2 ^ 24 -> N.land pid (N.shiftl lvl 24) = 0.
Proof.
  intros Hp. apply N.bits_inj_0. intros i. rewrite N.land_spec.
  destruct (N.lt_ge_cases i 24) as [Hi|Hi].
  - rewrite (N.shiftl_spec_low lvl 24 i Hi). apply andb_false_r.
  - rewrite <- (N.mod_small pid (2 ^ 24)) by exact Hp.
    rewrite N.mod_pow2_bits_high by exact Hi. reflexivity.
Qed.

Lemma cl_word_spec pid lvl :
  pid < 2 ^ 24 -> lvl < 256 ->
  let w := N.lor pid (N.shiftl lvl CL_SHIFT) in
  w < two32 /\ (w / 2 ^ CL_SHIFT) mod 256 = lvl.
Proof.
  intros Hp Hl. rewrite CL_SHIFT_val. cbv zeta.
  assert (E : N.lor pid (N.shiftl lvl 24) = pid + lvl * 2 ^ 24).
  { rewrite <- N.lxor_lor by (now apply land_low_shift).
    rewrite <- N.add_nocarry_lxor by (now apply land_low_shift).
    now rewrite N.shiftl_mul_pow2. }
  rewrite E. split.
  - unfold two32. change (2 ^ 24) with 16777216 in *. lia.
  - rewrite N.div_add by discriminate. rewrite N.div_small by exact Hp. cbn [N.add]. now apply N.mod_small.
Qed.

Lemma plain_word_spec w : w < 2 ^ 24 -> (w / 2 ^ CL_SHIFT) mod 256 = 0.
Proof. intros H. rewrite CL_SHIFT_val, N.div_small by exact H. reflexivity. Qed.

(* ------------------------------------------------------------------ shapes of the packet buffer *)

Definition framed (c : mcfg) (w0 : N) (body : list byte) : list byte :=
  le32 (mc_magic c) ++ le32 (mc_sex c) ++ le32 w0 ++ body.

Definition shape (c : mcfg) (w0 : N) (ms : list msg) : list byte := framed c w0 (enc_chunks ms).

Definition mcfg_ok (c : mcfg) : Prop :=
  mc_magic c < two32 /\ mc_sex c < two32 /\ mc_level c < 256 /\ PHS + CHS < mc_mtu c.

(* the packet buffer is empty, or a header followed by the chunks ms, at least one *)
Definition pkt_is (c : mcfg) (pkt : list byte) (ms : list msg) : Prop :=
  (pkt = [] /\ ms = []) \/
  (ms <> [] /\ exists w0, w0 < two32 /\ (mc_level c = 0 -> w0 < 2 ^ 24) /\ pkt = shape c w0 ms).

Definition mfits (c : mcfg) (m : msg) : bool := PHS + CHS + lenN m <=? mc_mtu c.

Lemma lenN_framed c w0 body : lenN (framed c w0 body) = PHS + lenN body.
Proof. unfold framed. rewrite !lenN_app, !lenN_le32, PHS_val. lia. Qed.

Lemma framed_parts c w0 body :
  takeN (2 * c_C12_SIZEOF_UINT32) (framed c w0 body) = le32 (mc_magic c) ++ le32 (mc_sex c)
  /\ dropN PHS (framed c w0 body) = body.
Proof.
  unfold framed. rewrite W2_val, PHS_val. split.
  - rewrite app_assoc. apply (takeN_app_exact (le32 (mc_magic c) ++ le32 (mc_sex c))).
  - rewrite !app_assoc. apply (dropN_app_exact ((le32 (mc_magic c) ++ le32 (mc_sex c)) ++ le32 w0)).
Qed.

Lemma takeN_framed c w0 body k : PHS <= k -> takeN k (framed c w0 body) = framed c w0 (takeN (k - PHS) body).
Proof.
  intros Hk. unfold framed. rewrite !app_assoc, takeN_app_ge; rewrite !lenN_app, !lenN_le32, PHS_val in *; [reflexivity|lia].
Qed.

Lemma shape_snoc c w0 ms m : shape c w0 ms ++ enc_chunk m = shape c w0 (ms ++ [m]).
Proof.
  unfold shape, framed. rewrite <- !app_assoc. do 3 f_equal.
  rewrite enc_chunks_app. cbn [enc_chunks map concat]. now rewrite app_nil_r.
Qed.

Lemma pkt_is_nil c pkt ms : pkt_is c pkt ms -> (pkt = [] <-> ms = []).
Proof.
  intros [[-> ->]|(Hne & w0 & _ & _ & ->)]; [tauto|]. split; [|tauto].
  intros E. apply (f_equal lenN) in E. unfold shape in E. rewrite lenN_framed, PHS_val, lenN_nil in E. lia.
Qed.

Lemma pkt_is_add c pid pkt ms m :
  mcfg_ok c -> pid < 2 ^ 24 -> pkt_is c pkt ms ->
  pkt_is c ((if lenN pkt =? 0 then mheader c pid else pkt) ++ enc_chunk m) (ms ++ [m]).
Proof.
  intros (_ & _ & Hlvl & _) Hpid Hpk. right. split; [now destruct ms|].
  destruct Hpk as [[-> ->]|(_ & w0 & Hw0 & Hlv & ->)].
  - exists (N.lor pid (N.shiftl (mc_level c) CL_SHIFT)).
    split; [apply (cl_word_spec pid (mc_level c) Hpid Hlvl)|]. split.
    + intros E0. now rewrite E0, N.shiftl_0_l, N.lor_0_r.
    + rewrite <- shape_snoc. cbn [lenN length N.of_nat N.eqb]. unfold mheader, shape, framed.
      cbn [enc_chunks map concat]. now rewrite <- !app_assoc.
  - exists w0. unfold shape at 1. rewrite lenN_framed, PHS_val.
    destruct (12 + lenN (enc_chunks ms) =? 0) eqn:E; [apply N.eqb_eq in E; lia|]. rewrite shape_snoc. auto.
Qed.

Lemma lenN_add_chunk c pid pkt m :
  lenN ((if lenN pkt =? 0 then mheader c pid else pkt) ++ enc_chunk m)
  = lenN pkt + (if lenN pkt =? 0 then PHS else 0) + CHS + lenN m.
Proof.
  rewrite lenN_app, lenN_enc_chunk. destruct (lenN pkt =? 0) eqn:Hz; [|lia].
  apply N.eqb_eq in Hz. unfold mheader. rewrite Hz, !lenN_app, !lenN_le32, PHS_val. lia.
Qed.

(* d is the prefix of the queue that mfill takes: it stops at the end of the queue or at a Message this packet has no room for *)
Lemma mfill_spec c pid : forall q pkt ms0 pkt' q',
  mcfg_ok c -> pid < 2 ^ 24 ->
  pkt_is c pkt ms0 -> lenN pkt <= mc_mtu c ->
  mfill c pid pkt q = (pkt', q') ->
  exists d,
    pkt_is c pkt' (ms0 ++ filter (mfits c) d) /\ lenN pkt' <= mc_mtu c
    /\ q = d ++ q' /\ (q' = [] \/ pkt' <> []).
Proof.
  induction q as [|m q IH]; intros pkt ms0 pkt' q' Hc Hpid Hpk Hsz; cbn [mfill].
  - intros E. injection E as <- <-. exists []. rewrite app_nil_r. auto.
  - rewrite N.ltb_antisym. fold (mfits c m). destruct (mfits c m) eqn:Hfit; cbn [negb].
    + destruct (lenN pkt + (if lenN pkt =? 0 then PHS else 0) + CHS + lenN m <=? mc_mtu c) eqn:Hroom.
      * apply N.leb_le in Hroom. rewrite <- (lenN_add_chunk c pid) in Hroom.
        intros E. destruct (IH _ _ _ _ Hc Hpid (pkt_is_add c pid pkt ms0 m Hc Hpid Hpk) Hroom E) as (d & H1 & H2 & -> & H4).
        exists (m :: d). cbn [filter]. rewrite Hfit. rewrite <- app_assoc in H1. auto.
      * intros E. injection E as <- <-. exists []. rewrite app_nil_r. repeat split; auto.
        (* the Message fits an empty packet, so this one is not empty *)
        right. intros ->. apply N.leb_gt in Hroom. unfold mfits in Hfit. apply N.leb_le in Hfit.
        rewrite lenN_nil in Hroom. cbn [N.eqb] in Hroom. lia.
    + intros E. destruct (IH _ _ _ _ Hc Hpid Hpk Hsz E) as (d & H1 & H2 & -> & H4).
      exists (m :: d). cbn [filter]. rewrite Hfit. auto.
Qed.

(* ------------------------------------------------------------------ what the receiver makes of a packet *)

Section WithZlib.

Variable deflate : N -> list byte -> option (list byte).
Variable inflate : list byte -> option (list byte).
Hypothesis inflate_deflate : forall lvl x d, deflate lvl x = Some d -> inflate d = Some x.

(* the two forms in which a packet buffer holding the chunks ms goes out: as it is, the header carrying
   level 0; or the header carrying the level, followed by the deflated chunks *)
Inductive wire_of (c : mcfg) (ms : list msg) : packet -> Prop :=
| wire_plain w0 : w0 < 2 ^ 24 -> wire_of c ms (shape c w0 ms)
| wire_packed pid d :
    pid < 2 ^ 24 -> 0 < mc_level c -> deflate (mc_level c) (enc_chunks ms) = Some d ->
    lenN d < lenN (enc_chunks ms) ->
    wire_of c ms (framed c (N.lor pid (N.shiftl (mc_level c) CL_SHIFT)) d).

Lemma mwire_spec c pid w0 ms :
  pid < 2 ^ 24 -> w0 < two32 -> (mc_level c = 0 -> w0 < 2 ^ 24) -> ms <> [] ->
  let '(w, pkt') := mwire deflate c pid (shape c w0 ms) in
  wire_of c ms w /\ pkt_is c pkt' ms /\ lenN pkt' = lenN (shape c w0 ms) /\ lenN w <= lenN (shape c w0 ms).
Proof.
  intros Hpid Hw0 Hlv Hne. unfold mwire, shape.
  destruct (framed_parts c w0 (enc_chunks ms)) as [-> ->]. rewrite !lenN_framed.
  assert (Hplain : forall w1, w1 < two32 -> (mc_level c = 0 -> w1 < 2 ^ 24) -> w1 < 2 ^ 24 ->
            wire_of c ms (shape c w1 ms) /\ pkt_is c (shape c w1 ms) ms
            /\ lenN (shape c w1 ms) = PHS + lenN (enc_chunks ms) /\ lenN (shape c w1 ms) <= PHS + lenN (enc_chunks ms)).
  { intros w1 H1 H2 H3. split; [now constructor|]. split; [right; split; [exact Hne|now exists w1]|].
    unfold shape. rewrite lenN_framed. lia. }
  assert (Hpid' : pid < two32) by (unfold two32; change (2 ^ 24) with 16777216 in Hpid; lia).
  destruct (0 <? mc_level c) eqn:Hl.
  - apply N.ltb_lt in Hl.
    destruct (deflate (mc_level c) (enc_chunks ms)) as [d|] eqn:Hd; [|now apply Hplain].
    destruct (PHS + lenN d <? PHS + lenN (enc_chunks ms)) eqn:Hsm; [|now apply Hplain].
    apply N.ltb_lt in Hsm. split; [constructor; (assumption || lia)|].
    split; [right; split; [exact Hne|now exists w0]|].
    rewrite <- app_assoc. fold (framed c (N.lor pid (N.shiftl (mc_level c) CL_SHIFT)) d).
    rewrite !lenN_framed. lia.
  - apply N.ltb_ge in Hl. apply Hplain; [assumption|assumption|apply Hlv; lia].
Qed.

Definition seen (c : mcfg) (rc : rcfg) (a : addr) (ms : list msg) : list (addr * msg) :=
  if (mc_magic c =? rc_magic rc) && sex_ok rc (mc_sex c) then map (pair a) ms else [].

Lemma seen_in c rc a ms m : In (a, m) (seen c rc a ms) -> In m ms.
Proof.
  unfold seen. destruct (_ && _); [|intros []]. intros H. apply in_map_iff in H as (m' & E & H). now injection E as ->.
Qed.

(* a datagram made of a well-formed header followed by [body] *)
Lemma mrecv_header rc a c w body :
  mcfg_ok c -> w < two32 -> rc_misc rc = false -> PHS + lenN body <= rc_mtu rc ->
  mrecv_packet inflate rc a (framed c w body) =
    seen c rc a (let b := if 0 <? (w / 2 ^ CL_SHIFT) mod 256
                          then match inflate body with Some x => x | None => [] end else body in
                 mparse (length b) b).
Proof.
  intros (Hmg & Hsx & _) Hw Hmisc Hlen. unfold mrecv_packet, seen.
  rewrite takeN_all by (rewrite lenN_framed; exact Hlen). rewrite lenN_framed.
  assert (H0 : (PHS + lenN body =? 0) = false) by (apply N.eqb_neq; rewrite PHS_val; lia).
  assert (H1 : (PHS <=? PHS + lenN body) = true) by (apply N.leb_le; lia).
  rewrite H0, H1, Hmisc. cbn [andb]. unfold framed. do 3 rewrite rd32_le32. rewrite !u32_small by assumption.
  reflexivity.
Qed.

Lemma mrecv_plain c rc a w0 ms :
  mcfg_ok c -> w0 < 2 ^ 24 -> Forall (fun m => lenN m < two32) ms ->
  rc_misc rc = false -> PHS + lenN (enc_chunks ms) <= rc_mtu rc ->
  mrecv_packet inflate rc a (shape c w0 ms) = seen c rc a ms.
Proof.
  intros Hc Hw0 Hms Hmisc Hlen. unfold shape. rewrite mrecv_header; try assumption.
  - rewrite plain_word_spec by exact Hw0. cbn [N.ltb N.compare]. cbv zeta.
    now rewrite mparse_enc by (assumption || apply length_enc_chunks).
  - unfold two32. change (2 ^ 24) with 16777216 in Hw0. lia.
Qed.

Lemma mrecv_wire_of c rc a ms w :
  wire_of c ms w -> mcfg_ok c -> Forall (fun m => lenN m < two32) ms ->
  rc_misc rc = false -> PHS + lenN (enc_chunks ms) <= rc_mtu rc ->
  mrecv_packet inflate rc a w = seen c rc a ms.
Proof.
  intros [w0 Hw0|pid d Hpid Hl Hd Hsm] Hc Hms Hmisc Hlen; [now apply mrecv_plain|].
  destruct (cl_word_spec pid (mc_level c) Hpid (proj1 (proj2 (proj2 Hc)))) as [Hw Hcl].
  rewrite mrecv_header; try assumption; [|lia]. rewrite Hcl.
  apply N.ltb_lt in Hl. rewrite Hl, (inflate_deflate _ _ _ Hd). cbv zeta.
  now rewrite mparse_enc by (assumption || apply length_enc_chunks).
Qed.

Lemma mrecv_packet_idem rc a p : mrecv_packet inflate rc a (takeN (rc_mtu rc) p) = mrecv_packet inflate rc a p.
Proof. unfold mrecv_packet. rewrite takeN_takeN, N.min_id. reflexivity. Qed.

(* an uncompressed packet cut to a smaller MTU still yields nothing but its own chunks *)
Lemma mrecv_shape_trunc c rc a w0 ms m :
  mcfg_ok c -> w0 < 2 ^ 24 -> Forall (fun m => lenN m < two32) ms ->
  rc_misc rc = false -> PHS <= rc_mtu rc ->
  In (a, m) (mrecv_packet inflate rc a (shape c w0 ms)) -> In m ms.
Proof.
  intros Hc Hw0 Hms Hmisc Hmtu.
  rewrite <- mrecv_packet_idem. unfold shape. rewrite takeN_framed by exact Hmtu.
  rewrite mrecv_header; try assumption.
  2:{ unfold two32. change (2 ^ 24) with 16777216 in Hw0. lia. }
  2:{ rewrite lenN_takeN. lia. }
  rewrite plain_word_spec by exact Hw0. cbn [N.ltb N.compare]. cbv zeta.
  destruct (mparse_truncated ms (length (takeN (rc_mtu rc - PHS) (enc_chunks ms))) (rc_mtu rc - PHS) Hms)
    as (ms1 & ms2 & -> & ->).
  intros H. apply seen_in in H. apply in_app_iff. now left.
Qed.

(* ------------------------------------------------------------------ the run of a sender *)

Fixpoint madded (ops : list mop) : list msg :=
  match ops with
  | [] => []
  | MAdd m :: ops' => m :: madded ops'
  | _ :: ops' => madded ops'
  end.

Fixpoint no_msetid (ops : list mop) : Prop :=
  match ops with
  | [] => True
  | MSetId _ :: _ => False
  | _ :: ops' => no_msetid ops'
  end.

Definition written (c : mcfg) (w : packet) (ms : list msg) : Prop :=
  wire_of c ms w /\ PHS + lenN (enc_chunks ms) <= mc_mtu c.

(* ghost view: [all] = every Message added so far; [mss] = the chunk lists of the packets written so far;
   the packet buffer holds [pend]; the Messages that can fit at all are those written, pending or queued *)
Definition minv (c : mcfg) (all : list msg) (mss : list (list msg)) (st : mstate) : Prop :=
  m_pid st < 2 ^ 24 /\ lenN (m_pkt st) <= mc_mtu c /\
  exists pend d, pkt_is c (m_pkt st) pend /\ all = d ++ m_q st /\ filter (mfits c) d = concat mss ++ pend.

Lemma minv_written c all mss st ms m : minv c all mss st -> In ms mss -> In m ms -> In m all.
Proof.
  intros (_ & _ & pend & d & _ & -> & Hf) Hms Hm. apply in_app_iff. left.
  apply (proj1 (filter_In (mfits c) m d)). rewrite Hf. apply in_app_iff. left. apply in_concat. eauto.
Qed.

Definition mpending (st : mstate) : nat := (length (m_q st) + (if (lenN (m_pkt st) =? 0)%N then 0 else 1))%nat.

(* fuel, byte limit and transport budget suffice to write everything that is pending *)
Definition mample (c : mcfg) (fuel : nat) (mb tot bud : N) (st : mstate) : Prop :=
  (mpending st <= fuel)%nat /\ tot + N.of_nat fuel * mc_mtu c < mb /\ N.of_nat fuel <= bud.

(* the output loop: what it writes, the invariant, and that it leaves nothing behind when it is not cut short *)
Lemma mout_loop_spec c all : forall fuel mb tot bud mss st pkts st',
  mcfg_ok c -> minv c all mss st ->
  mout_loop deflate fuel c mb tot bud st = (pkts, st') ->
  exists mss', Forall2 (written c) pkts mss' /\ minv c all (mss ++ mss') st'
               /\ (mample c fuel mb tot bud st -> m_q st' = [] /\ m_pkt st' = []).
Proof.
  induction fuel as [|fuel IH]; intros mb tot bud mss st pkts st' Hc Hinv; cbn [mout_loop].
  - intros E. injection E as <- <-. exists []. rewrite app_nil_r. split; [constructor|]. split; [exact Hinv|].
    intros (Hpend & _). unfold mpending in Hpend.
    destruct (lenN (m_pkt st) =? 0) eqn:Hz; [|lia]. apply N.eqb_eq, lenN_0_nil in Hz.
    split; [|exact Hz]. destruct (m_q st); [reflexivity|cbn in Hpend; lia].
  - destruct (tot <? mb) eqn:Htot.
    2:{ intros E. injection E as <- <-. exists []. rewrite app_nil_r. split; [constructor|]. split; [exact Hinv|].
        intros (_ & Hmb & _). apply N.ltb_ge in Htot. lia. }
    destruct Hinv as (Hpid & Hsz & pend & d & Hpk & Hd & Hf).
    destruct (mfill c (m_pid st) (m_pkt st) (m_q st)) as [pkt q] eqn:Ef.
    destruct (mfill_spec c (m_pid st) _ _ _ _ _ Hc Hpid Hpk Hsz Ef) as (d1 & Hpk1 & Hsz1 & Hq & Hstop).
    set (ms := pend ++ filter (mfits c) d1) in *.
    assert (Hd1 : all = (d ++ d1) ++ q) by (rewrite <- app_assoc, <- Hq; exact Hd).
    assert (Hf2 : filter (mfits c) (d ++ d1) = concat mss ++ ms).
    { rewrite filter_app, Hf. apply app_assoc_reverse. }
    (* the state when nothing is written: the buffer keeps what it holds *)
    assert (Hheld : forall pkt', pkt_is c pkt' ms -> lenN pkt' <= mc_mtu c -> minv c all mss (mkM (m_pid st) q pkt')).
    { intros pkt' H1 H2. split; [exact Hpid|]. split; [exact H2|]. now exists ms, (d ++ d1). }
    destruct (0 <? lenN pkt) eqn:Hpos.
    2:{ intros E. injection E as <- <-. exists []. rewrite app_nil_r. split; [constructor|]. split; [now apply Hheld|].
        intros _. apply N.ltb_ge in Hpos. assert (Hz : pkt = []) by (apply lenN_0_nil; lia).
        split; [now destruct Hstop|exact Hz]. }
    destruct Hpk1 as [[-> _]|(Hne & w0 & Hw0 & Hlv & ->)]; [discriminate|].
    pose proof (mwire_spec c (m_pid st) w0 ms Hpid Hw0 Hlv Hne) as Hw.
    destruct (mwire deflate c (m_pid st) (shape c w0 ms)) as [w pkt'].
    destruct Hw as (Hwire & Hpk' & Hlen' & Hwlen).
    destruct (bud =? 0) eqn:Hbud.
    + intros E. injection E as <- <-. exists []. rewrite app_nil_r. split; [constructor|].
      split; [apply Hheld; [exact Hpk'|lia]|]. intros (_ & _ & Hb). apply N.eqb_eq in Hbud. lia.
    + destruct (mout_loop deflate fuel c mb (tot + lenN w) (bud - 1) (mkM ((m_pid st + 1) mod PID_MOD) q [])) as [ps st1] eqn:El.
      intros E. injection E as <- <-.
      assert (Hinv1 : minv c all (mss ++ [ms]) (mkM ((m_pid st + 1) mod PID_MOD) q [])).
      { split; [cbn [m_pid]; rewrite PID_MOD_val; apply N.mod_upper_bound; discriminate|].
        split; [cbn; lia|]. exists [], (d ++ d1). split; [left; auto|]. split; [exact Hd1|].
        rewrite concat_app. cbn [concat]. now rewrite !app_nil_r. }
      destruct (IH _ _ _ _ _ _ _ Hc Hinv1 El) as (mss' & Hw' & Hinv' & Hdr').
      exists (ms :: mss'). rewrite <- app_assoc in Hinv'. split; [|split; [exact Hinv'|]].
      { constructor; [|exact Hw']. split; [exact Hwire|]. unfold shape in Hsz1. now rewrite lenN_framed in Hsz1. }
      intros (Hpend & Hmb & Hb). apply Hdr'. split; [|lia].
      (* a buffer that was empty has taken a Message off the queue *)
      unfold mpending in *. cbn [m_q m_pkt lenN length N.of_nat N.eqb]. rewrite Hq, app_length in Hpend.
      destruct (lenN (m_pkt st) =? 0) eqn:Hz; [|lia].
      apply N.eqb_eq, lenN_0_nil in Hz. apply (pkt_is_nil _ _ _ Hpk) in Hz.
      destruct d1; [exfalso; apply Hne; subst ms pend; reflexivity|cbn [length] in Hpend; lia].
Qed.

Lemma minv_init c pid0 : pid0 < 2 ^ 24 -> minv c [] [] (m_init pid0).
Proof.
  intros H. split; [exact H|]. split; [cbn; lia|]. exists [], []. split; [left; auto|]. auto.
Qed.

Lemma mrun_spec c : forall ops all mss st st' pkts,
  mcfg_ok c -> no_msetid ops -> minv c all mss st ->
  mrun deflate c st ops = (st', pkts) ->
  exists mss', Forall2 (written c) pkts mss' /\ minv c (all ++ madded ops) (mss ++ mss') st'.
Proof.
  induction ops as [|o ops IH]; intros all mss st st' pkts Hc Hns Hinv; cbn [mrun].
  - intros E. injection E as <- <-. exists []. cbn [madded]. rewrite !app_nil_r. split; [constructor|exact Hinv].
  - destruct o as [m|mb bud|pid]; cbn [no_msetid] in Hns; [| |tauto]; cbn [mstep madded].
    + destruct (mrun deflate c (mkM (m_pid st) (m_q st ++ [m]) (m_pkt st)) ops) as [st2 p2] eqn:E2.
      intros E. injection E as <- <-. cbn [app].
      assert (Hinv1 : minv c (all ++ [m]) mss (mkM (m_pid st) (m_q st ++ [m]) (m_pkt st))).
      { destruct Hinv as (Hpid & Hsz & pend & d & Hpk & Hd & Hf). split; [exact Hpid|]. split; [exact Hsz|].
        exists pend, d. cbn [m_pkt m_q]. split; [exact Hpk|]. split; [now rewrite Hd, app_assoc|exact Hf]. }
      replace (all ++ m :: madded ops) with ((all ++ [m]) ++ madded ops) by (now rewrite <- app_assoc).
      exact (IH _ _ _ _ _ Hc Hns Hinv1 E2).
    + destruct (mout_loop deflate (mout_fuel st) c mb 0 bud st) as [ps st1] eqn:E1.
      destruct (mrun deflate c st1 ops) as [st2 p2] eqn:E2.
      intros E. injection E as <- <-.
      destruct (mout_loop_spec c all _ _ _ _ _ _ _ _ Hc Hinv E1) as (mss1 & Hw1 & Hinv1 & _).
      destruct (IH _ _ _ _ _ Hc Hns Hinv1 E2) as (mss2 & Hw2 & Hinv2).
      exists (mss1 ++ mss2). rewrite app_assoc. split; [now apply Forall2_app|exact Hinv2].
Qed.

(* ------------------------------------------------------------------ theorems *)

Record mini_run := mkMRun { mr_cfg : mcfg; mr_pid0 : N; mr_ops : list mop }.

Definition mr_packets (s : mini_run) : list packet := snd (mrun deflate (mr_cfg s) (m_init (mr_pid0 s)) (mr_ops s)).
Definition mr_msgs (s : mini_run) : list msg := madded (mr_ops s).

Definition mr_ok (s : mini_run) : Prop :=
  mcfg_ok (mr_cfg s) /\ mr_pid0 s < 2 ^ 24 /\ no_msetid (mr_ops s)
  /\ Forall (fun m => lenN m < two32) (mr_msgs s).

Lemma mrecv_all_app rc n1 n2 : mrecv_all inflate rc (n1 ++ n2) = mrecv_all inflate rc n1 ++ mrecv_all inflate rc n2.
Proof.
  induction n1 as [|[a p] n1 IH]; [reflexivity|]. cbn [app mrecv_all]. now rewrite IH, app_assoc.
Qed.

Lemma mrecv_packet_tag rc a p : forall d, In d (mrecv_packet inflate rc a p) -> fst d = a.
Proof.
  unfold mrecv_packet.
  destruct (lenN (takeN (rc_mtu rc) p) =? 0); [intros d []|].
  destruct (rc_misc rc && ((lenN (takeN (rc_mtu rc) p) <? PHS) || negb (first_word_is (rc_magic rc) (takeN (rc_mtu rc) p)))).
  { intros d [<-|[]]. reflexivity. }
  destruct (PHS <=? lenN (takeN (rc_mtu rc) p)); [|intros d []].
  destruct (rd32 (takeN (rc_mtu rc) p)) as [[mg b1]|]; [|intros d []].
  destruct (rd32 b1) as [[sx b2]|]; [|intros d []].
  destruct (rd32 b2) as [[cl b3]|]; [|intros d []].
  destruct ((mg =? rc_magic rc) && ((rc_sex rc =? 0) || negb (rc_sex rc =? sx))); [|intros d []].
  intros d Hd. apply in_map_iff in Hd as (m & <- & _). reflexivity.
Qed.

Lemma mrecv_foreign rc a p : rc_misc rc = false -> PHS <= rc_mtu rc -> foreign (rc_magic rc) p -> mrecv_packet inflate rc a p = [].
Proof.
  intros Hmisc Hmtu Hf. unfold mrecv_packet. rewrite Hmisc. cbn [andb].
  destruct (lenN (takeN (rc_mtu rc) p) =? 0); [reflexivity|].
  destruct (PHS <=? lenN (takeN (rc_mtu rc) p)); [|reflexivity].
  unfold foreign in Hf. rewrite <- (first_word_takeN _ (rc_mtu rc)) in Hf by (rewrite PHS_val in Hmtu; lia).
  unfold first_word_is in Hf.
  destruct (rd32 (takeN (rc_mtu rc) p)) as [[mg b1]|]; [|reflexivity].
  destruct (rd32 b1) as [[sx b2]|]; [|reflexivity].
  destruct (rd32 b2) as [[cl b3]|]; [|reflexivity].
  rewrite Hf. reflexivity.
Qed.

(* one genuine packet, as seen by a receiver whose MTU may be smaller when the packet is not compressed *)
Lemma mini_packet_sound rc s a p m :
  rc_misc rc = false -> PHS <= rc_mtu rc -> mr_ok s ->
  (mc_level (mr_cfg s) = 0 \/ mc_mtu (mr_cfg s) <= rc_mtu rc) ->
  In p (mr_packets s) -> In (a, m) (mrecv_packet inflate rc a p) -> In m (mr_msgs s).
Proof.
  intros Hmisc Hrmtu (Hc & Hpid & Hns & Hsm) Hcase Hsent Hin.
  unfold mr_packets in Hsent.
  destruct (mrun deflate (mr_cfg s) (m_init (mr_pid0 s)) (mr_ops s)) as [st pkts] eqn:E. cbn [snd] in Hsent.
  destruct (mrun_spec (mr_cfg s) (mr_ops s) [] [] _ _ _ Hc Hns (minv_init _ _ Hpid) E) as (mss & Hw & Hinv).
  cbn [app] in Hinv. fold (mr_msgs s) in Hinv.
  (* the packet was written for some chunk list ms, all of whose chunks are Messages of s *)
  assert (Hex : exists ms, In ms mss /\ written (mr_cfg s) p ms).
  { clear - Hw Hsent. induction Hw as [|w ms ws mss0 Hwm _ IHw]; [destruct Hsent|].
    destruct Hsent as [<-|Hs]; [exists ms; split; [now left|exact Hwm]|].
    destruct (IHw Hs) as (ms' & H1 & H2). exists ms'. split; [now right|exact H2]. }
  destruct Hex as (ms & Hms & Hwire & Hsz).
  assert (Hall : forall x, In x ms -> In x (mr_msgs s)) by (intros x; now apply (minv_written _ _ _ _ ms x Hinv)).
  assert (Hsmall : Forall (fun x => lenN x < two32) ms).
  { rewrite Forall_forall in *. auto. }
  apply Hall. destruct Hcase as [Hl0|Hmtu].
  - destruct Hwire as [w0 Hw0|pid d _ Hl _ _]; [|lia]. eapply mrecv_shape_trunc; eassumption.
  - rewrite (mrecv_wire_of _ rc a ms p Hwire Hc Hsmall Hmisc) in Hin by lia. eapply seen_in; eassumption.
Qed.

(* THE PROPERTY (mini tunnel), first clause: over loss, duplication, reordering, foreign datagrams under a
   sender's address and arbitrary bytes under any other address, whatever is delivered under a sender's
   address is one of that sender's Messages -- with or without compression, given the zlib premise.
   A receiver with a smaller MTU (truncated datagrams) is covered for senders that do not compress; what
   zlib makes of a truncated deflate stream is outside the premise, so compressing senders need
   receiver MTU >= sender MTU. *)
Theorem mini_sound :
  forall (rc : rcfg) (who : addr -> option mini_run) (net : list (addr * packet)),
    rc_misc rc = false -> PHS <= rc_mtu rc ->
    (forall a s, who a = Some s -> mr_ok s /\ (mc_level (mr_cfg s) = 0 \/ mc_mtu (mr_cfg s) <= rc_mtu rc)) ->
    (forall a s p, who a = Some s -> In (a, p) net -> In p (mr_packets s) \/ foreign (rc_magic rc) p) ->
    forall a s m, who a = Some s -> In (a, m) (mrecv_all inflate rc net) -> In m (mr_msgs s).
Proof.
  intros rc who net Hmisc Hrmtu Hok Hnet a s m Ha.
  induction net as [|[b p] net IH]; cbn [mrecv_all]; [intros []|].
  intros Hin. apply in_app_iff in Hin as [Hin|Hin].
  2:{ apply IH; [|exact Hin]. intros a' s' p' Ha' Hin'. apply (Hnet a' s' p' Ha'). now right. }
  pose proof (mrecv_packet_tag rc b p _ Hin) as Hba. cbn [fst] in Hba. subst b.
  destruct (Hok a s Ha) as [Hsok Hcase].
  destruct (Hnet a s p Ha (or_introl eq_refl)) as [Hsent|Hfor].
  - eapply mini_packet_sound; eassumption.
  - rewrite mrecv_foreign in Hin by assumption. destruct Hin.
Qed.

(* THE PROPERTY (mini tunnel), second clause: every packet once and in order => exactly the Messages that
   were completely written and that can fit into a packet at all, once each, in order; for every MTU,
   compression level and call pattern.  [m_pkt st = []]: nothing is held back; [m_q st]: not yet written. *)
Theorem mini_complete :
  forall rc c a pid0 ops st pkts,
    mcfg_ok c -> rc_misc rc = false ->
    mc_magic c = rc_magic rc -> sex_ok rc (mc_sex c) = true -> mc_mtu c <= rc_mtu rc ->
    pid0 < 2 ^ 24 -> no_msetid ops ->
    Forall (fun m => lenN m < two32) (madded ops) ->
    mrun deflate c (m_init pid0) ops = (st, pkts) ->
    m_pkt st = [] ->
    exists done,
      madded ops = done ++ m_q st
      /\ mrecv_all inflate rc (map (pair a) pkts) = map (pair a) (filter (mfits c) done).
Proof.
  intros rc c a pid0 ops st pkts Hc Hmisc Hmg Hsx Hmtu Hpid Hns Hsm Hrun Hpk.
  destruct (mrun_spec c ops [] [] _ _ _ Hc Hns (minv_init _ _ Hpid) Hrun) as (mss & Hw & Hinv).
  cbn [app] in Hinv.
  assert (Hsmall : forall ms, In ms mss -> Forall (fun x => lenN x < two32) ms).
  { intros ms Hms. rewrite Forall_forall in *. intros x Hx. apply Hsm. eapply minv_written; eassumption. }
  destruct Hinv as (_ & _ & pend & d & Hpend & Hd & Hf).
  rewrite (proj1 (pkt_is_nil _ _ _ Hpend) Hpk), app_nil_r in Hf.
  exists d. split; [exact Hd|]. rewrite Hf.
  clear - Hw Hsmall Hc Hmisc Hmg Hsx Hmtu inflate_deflate.
  induction Hw as [|w ms ws mss0 [Hwire Hsz] _ IHw]; [reflexivity|].
  cbn [map mrecv_all concat]. rewrite map_app, <- IHw by (intros; apply Hsmall; now right).
  rewrite (mrecv_wire_of c rc a ms w Hwire Hc (Hsmall ms (or_introl eq_refl)) Hmisc) by lia.
  unfold seen. now rewrite Hmg, N.eqb_refl, Hsx.
Qed.

End WithZlib.

(* ------------------------------------------------------------------ non-vacuity *)

(* a toy codec that satisfies the zlib premise and does compress one payload: the two chunks of the
   example below become a single byte *)
Definition toy_m1 : msg := repeat x41 9.
Definition toy_m2 : msg := [x01; x02; x03].
Definition toy_payload : list byte := enc_chunks [toy_m1; toy_m2].
Definition toy_deflate (lvl : N) (x : list byte) : option (list byte) :=
  if list_eq_dec Byte.byte_eq_dec x toy_payload then Some [xff] else None.
Definition toy_inflate (d : list byte) : option (list byte) :=
  if list_eq_dec Byte.byte_eq_dec d [xff] then Some toy_payload else None.

Lemma toy_codec_ok : forall lvl x d, toy_deflate lvl x = Some d -> toy_inflate d = Some x.
Proof.
  intros lvl x d. unfold toy_deflate, toy_inflate.
  destruct (list_eq_dec Byte.byte_eq_dec x toy_payload) as [->|]; [|discriminate].
  intros E. injection E as <-. destruct (list_eq_dec Byte.byte_eq_dec [xff] [xff]); [reflexivity|congruence].
Qed.

Definition toy_cfg : mcfg := mkMCfg c_DEFAULT_MINI_TUNNEL_IOGATEWAY_MAGIC 7 (mclamp_mtu 40) 6.
Definition toy_rc : rcfg := mkRCfg c_DEFAULT_MINI_TUNNEL_IOGATEWAY_MAGIC 0 (mclamp_mtu 40) 4294967295 false.
Definition toy_ops : list mop :=
  [MAdd toy_m1; MAdd toy_m2; MAdd (repeat x43 40); MOut 4294967295 100; MAdd [x09]; MOut 4294967295 100].
Definition toy_run : mini_run := mkMRun toy_cfg 16777215 toy_ops.

Example toy_run_ok :
  mr_ok toy_run /\ mc_mtu (mr_cfg toy_run) <= rc_mtu toy_rc
  /\ mc_magic toy_cfg = rc_magic toy_rc /\ sex_ok toy_rc (mc_sex toy_cfg) = true.
Proof.
  split; [|split; [vm_decide|split; vm_decide]].
  unfold mr_ok, mcfg_ok. cbn [mr_cfg mr_pid0 mr_ops toy_run].
  split; [split; [vm_decide|split; [vm_decide|split; vm_decide]]|]. split; [vm_decide|]. split; [vm_decide|].
  unfold mr_msgs. cbn [mr_ops toy_run toy_ops madded]. repeat constructor; vm_decide.
Qed.

(* the first packet goes out compressed (header + 1 byte), the 40-byte Message is dropped, the last
   packet goes out uncompressed with its header patched; the packet id wraps from 2^24-1 to 0 *)
Example toy_run_nontrivial :
  map (@length byte) (mr_packets toy_deflate toy_run) = [13; 17]%nat
  /\ mrecv_all toy_inflate toy_rc (map (pair 5) (mr_packets toy_deflate toy_run)) = [(5, toy_m1); (5, toy_m2); (5, [x09])]
  /\ m_pid (fst (mrun toy_deflate toy_cfg (m_init 16777215) toy_ops)) = 1.
Proof. vm_compute. repeat split; reflexivity. Qed.
