(* Gw/GwRecvProofs.v -- C02: soundness of the MessageIOGateway receive machine (model: Gw/RecvInstr.v).

   For the repaired code (fx3 = true), every maximum incoming size, every Message parser [unflat] (zlib included) and
   every byte stream under every segmentation, [recv_sound_proof]: every Read() target range and the header memcpy lie
   inside the buffer they write to, every buffer request is at most max(scratch, headerSize + min(maxIncoming,
   2^32-1-headerSize)), and DoInput terminates: every turn of its loop that does not end the call consumes input.
   For the pinned code (fx3 = false) [recv_f3_refuted_proof]: an 8-byte header makes it copy the header into a 0-byte buffer. *)
From Coq Require Import List NArith Bool Lia.
From Muscle Require Import Gen.Consts Msg.MsgDefs Msg.MsgInstrProofs Gw.RecvInstr.
Import ListNotations.
Local Open Scope N_scope.

Lemma g_hs_val : g_hs = 8.  Proof. reflexivity. Qed.
Lemma g_scratch_ge : g_hs <= g_scratch.  Proof. vm_compute. discriminate. Qed.
Lemma g_nolim_val : g_nolim = 4294967295.  Proof. reflexivity. Qed.

Section RecvProofs.
  Variable max_in : N.
  Variable unflat : bytes -> bool.

  Definition abound : N := N.max g_scratch (g_hs + N.min max_in (g_nolim - g_hs)).

  (* at every turn boundary: the buffer holds at least a header, the cursor is inside it, and a cursor past the header
     has not reached the end (a complete buffer is consumed in the turn that completes it) *)
  Definition ginv (st : gstate) : Prop :=
    match g_cap st with
    | None => True
    | Some c => g_hs <= c /\ g_off st <= c /\ (g_hs <= g_off st -> g_off st < c)
    end.
  Definition glok (l : glog) : Prop := Forall write_ok (gl_writes l) /\ Forall (fun n => n <= abound) (gl_allocs l).

  Lemma glok_write cap off k l : glok l -> off + k <= cap -> glok (gw_write cap off k l).
  Proof. intros [H1 H2] H. split; [constructor; [exact H | exact H1] | exact H2]. Qed.
  Lemma glok_alloc n l : glok l -> n <= abound -> glok (gw_alloc n l).
  Proof. intros [H1 H2] H. split; [exact H1 | constructor; [exact H | exact H2]]. Qed.
  Lemma glok_deliver b l : glok l -> glok (gw_deliver b l).
  Proof. intros [H1 H2]. split; assumption. Qed.

  Lemma scratch_le_abound : g_scratch <= abound.  Proof. unfold abound. lia. Qed.
  Lemma hs_le_abound : g_hs <= abound.  Proof. pose proof g_scratch_ge. unfold abound. lia. Qed.

  (* ReceiveMoreData: the write stays inside [0, target) <= cap, the cursor does not pass the target, input shrinks by
     what was read; a read that is not short read its whole (non-empty when off < target and maxb > 0) attempt *)
  Lemma recv_more_spec st cap l inp maxb target :
    glok l -> g_off st <= target -> target <= cap ->
    let '(st1, l1, inp1, maxb1, short) := recv_more st cap l inp maxb target in
    glok l1 /\ g_cap st1 = g_cap st /\ g_off st <= g_off st1 /\ g_off st1 <= target /\ g_err st1 = g_err st /\
    g_scr st1 = g_scr st /\ len inp1 + (g_off st1 - g_off st) = len inp /\
    (short = false -> 0 < maxb -> g_off st < target -> g_off st < g_off st1) /\
    (short = false -> g_off st1 = g_off st + N.min maxb (target - g_off st)) /\
    (short = true -> g_off st1 < target).
  Proof.
    intros Hl Ho Ht. unfold recv_more. cbn [g_cap g_off g_err g_scr].
    set (att := N.min maxb (if g_off st <? target then target - g_off st else 0)).
    assert (Hatt : att <= target - g_off st).
    { unfold att. destruct (N.ltb_spec (g_off st) target); lia. }
    assert (Hatt2 : g_off st < target -> att = N.min maxb (target - g_off st)).
    { intro. unfold att. destruct (N.ltb_spec (g_off st) target); lia. }
    assert (Hk : N.min att (len inp) <= att) by lia.
    split; [apply glok_write; [exact Hl | lia]|].
    split; [reflexivity|]. split; [lia|]. split; [lia|]. split; [reflexivity|]. split; [reflexivity|].
    split; [rewrite len_dropN; lia|].
    split; [|split].
    - intros Hs Hm Hlt. destruct (N.ltb_spec (N.min att (len inp)) att); [discriminate|]. rewrite Hatt2 in * by lia. lia.
    - intros Hs. destruct (N.ltb_spec (N.min att (len inp)) att); [discriminate|].
      destruct (N.ltb_spec (g_off st) target); [rewrite Hatt2 in * by lia; lia|].
      unfold att in *. destruct (N.ltb_spec (g_off st) target); lia.
    - intros Hs. destruct (N.ltb_spec (N.min att (len inp)) att); [lia|discriminate].
  Qed.

  (* what a turn that started with input inp0 may end in *)
  Definition turn_ok (inp0 : bytes) (t : turn) : Prop :=
    match t with
    | TStop s lg i => (g_err s = true \/ ginv s) /\ glok lg /\ len i <= len inp0
    | TGo s lg i mb => ginv s /\ glok lg /\ g_err s = false /\ len i < len inp0
    end.

  (* lines 303-316 of DoInputImplementation as they stand in recv_turn *)
  Definition body_phase (st2 : gstate) (l2 : glog) (inp2 : bytes) (maxb2 cap2 : N) : turn :=
    if g_hs <=? g_off st2 then
      let '(st3, l3, inp3, maxb3, short) :=
        if g_off st2 <? cap2 then recv_more st2 cap2 l2 inp2 maxb2 cap2 else (st2, l2, inp2, maxb2, false) in
      if short then TStop st3 l3 inp3
      else if g_off st3 =? cap2 then
        if unflat (g_data st3)
        then TGo (mkG None 0 [] false (g_scr st3)) (gw_deliver (g_data st3) l3) inp3 maxb3
        else TStop (mkG None 0 [] true (g_scr st3)) l3 inp3
      else TGo st3 l3 inp3 maxb3
    else TGo st2 l2 inp2 maxb2.

  (* what the header phase hands to the body phase: a buffer of cap2 >= header size with the cursor inside it, and
     either input consumed already or a read that will consume some *)
  Definition body_pre (inp0 : bytes) (st2 : gstate) (l2 : glog) (inp2 : bytes) (maxb2 cap2 : N) : Prop :=
    g_cap st2 = Some cap2 /\ g_hs <= cap2 /\ g_off st2 <= cap2 /\ glok l2 /\ g_err st2 = false /\
    (len inp2 < len inp0 \/ len inp2 = len inp0 /\ 0 < maxb2 /\ g_hs <= g_off st2 < cap2).

  Lemma body_phase_spec inp0 st2 l2 inp2 maxb2 cap2 :
    body_pre inp0 st2 l2 inp2 maxb2 cap2 -> turn_ok inp0 (body_phase st2 l2 inp2 maxb2 cap2).
  Proof.
    intros (Hc & Hhc & Hoc & Hl & He & Hpr). unfold body_phase.
    destruct (N.leb_spec g_hs (g_off st2)) as [Hb|Hb].
    2:{ cbn [turn_ok]. unfold ginv. rewrite Hc. repeat split; try assumption; try apply Hl; lia. }
    assert (R : let '(st3, l3, inp3, maxb3, short) :=
                  if g_off st2 <? cap2 then recv_more st2 cap2 l2 inp2 maxb2 cap2 else (st2, l2, inp2, maxb2, false) in
                glok l3 /\ g_cap st3 = Some cap2 /\ g_off st3 <= cap2 /\ g_hs <= g_off st3 /\ g_err st3 = false /\
                len inp3 <= len inp2 /\ (short = false -> len inp3 < len inp0) /\ (short = true -> g_off st3 < cap2)).
    { destruct (N.ltb_spec (g_off st2) cap2) as [Hlt|Hge].
      - pose proof (recv_more_spec st2 cap2 l2 inp2 maxb2 cap2 Hl Hoc (N.le_refl _)) as R.
        destruct (recv_more st2 cap2 l2 inp2 maxb2 cap2) as [[[[st3 l3] inp3] maxb3] short].
        destruct R as (Rl & Rc & Ro1 & Ro2 & Re & _ & Rlen & Rpos & _ & Rsh).
        split; [exact Rl|]. split; [congruence|]. split; [lia|]. split; [lia|]. split; [congruence|]. split; [lia|].
        split; [intros Hs; specialize (Rpos Hs); lia | exact Rsh].
      - split; [exact Hl|]. split; [exact Hc|]. repeat split; try assumption; try lia; discriminate. }
    destruct (if g_off st2 <? cap2 then _ else _) as [[[[st3 l3] inp3] maxb3] short].
    destruct R as (Rl & Rc & Ro & Rh & Re & Rlen & Rpos & Rsh).
    destruct short.
    - specialize (Rsh eq_refl). cbn [turn_ok]. split; [right; unfold ginv; rewrite Rc; repeat split; lia | split; [exact Rl | lia]].
    - destruct (N.eqb_spec (g_off st3) cap2) as [Hdone|Hmore].
      + destruct (unflat (g_data st3)); cbn [turn_ok g_err].
        * split; [exact I|]. split; [apply glok_deliver; exact Rl|]. split; [reflexivity | exact (Rpos eq_refl)].
        * split; [left; reflexivity | split; [exact Rl | lia]].
      + specialize (Rpos eq_refl). cbn [turn_ok].
        split; [unfold ginv; rewrite Rc; repeat split; lia | split; [exact Rl | split; [exact Re | exact Rpos]]].
  Qed.

  (* one turn of the loop, repaired code: a receive buffer is made sure of, the header phase (DoInputImplementation
     262-301) either ends the turn or establishes body_pre, and body_phase_spec does the rest *)
  Lemma recv_turn_spec st l inp maxb :
    ginv st -> glok l -> g_err st = false -> 0 < maxb -> turn_ok inp (recv_turn true max_in unflat st l inp maxb).
  Proof.
    intros Hi Hl He Hm. pose proof g_scratch_ge as Hsc. pose proof g_hs_val as Hh. pose proof g_nolim_val as Hn.
    pose proof scratch_le_abound as Hsa. pose proof hs_le_abound as Hha.
    unfold recv_turn.
    (* the receive buffer of this turn *)
    set (pre := match g_cap st with
                | Some c => (st, l, c)
                | None => _ end).
    assert (Hpre : let '(st0, l0, cap0) := pre in
                   g_cap st0 = Some cap0 /\ g_hs <= cap0 /\ g_off st0 <= cap0 /\ (g_hs <= g_off st0 -> g_off st0 < cap0) /\
                   glok l0 /\ g_err st0 = false).
    { unfold pre, ginv in *. destruct (g_cap st) as [c|] eqn:Ec.
      - destruct Hi as (A & B & C). destruct Hl as [Hl1 Hl2]. repeat split; assumption.
      - destruct (N.leb_spec g_hs g_scratch); [|lia].
        assert (Hl1 : glok (if g_scr st then l else gw_alloc g_scratch l))
          by (destruct (g_scr st); [exact Hl | apply glok_alloc; assumption]).
        cbn [g_cap g_off g_err]. split; [reflexivity|]. split; [lia|]. split; [lia|]. split; [lia|]. split; [exact Hl1 | exact He]. }
    destruct pre as [[st0 l0] cap0]. destruct Hpre as (Hc0 & Hhc & Hoc & Hlt0 & Hl0 & He0).
    (* the header phase ends the turn with an error status or a short read, or hands over to the body phase *)
    match goal with |- turn_ok _ (match ?h with _ => _ end) => set (hp := h) end.
    assert (Hhp : match hp with
                  | inr (s, lg, i) => turn_ok inp (TStop s lg i)
                  | inl None => False
                  | inl (Some (st2, l2, inp2, maxb2, cap2)) => body_pre inp st2 l2 inp2 maxb2 cap2
                  end).
    { unfold hp, body_pre. clear hp. destruct (N.ltb_spec (g_off st0) g_hs) as [Hhdr|Hbody].
      2:{ exact (conj Hc0 (conj Hhc (conj Hoc (conj Hl0 (conj He0 (or_intror (conj eq_refl (conj Hm (conj Hbody (Hlt0 Hbody)))))))))). }
      pose proof (recv_more_spec st0 cap0 l0 inp maxb g_hs Hl0 ltac:(lia) Hhc) as R.
      destruct (recv_more st0 cap0 l0 inp maxb g_hs) as [[[[st1 l1] inp1] maxb1] short].
      destruct R as (Rl & Rc & Ro1 & Ro2 & Re & Rs & Rlen & Rpos & Rex & Rsh).
      assert (Hle : len inp1 <= len inp) by (clear - Rlen; lia).
      destruct short.
      { specialize (Rsh eq_refl). clear - Rsh Ro2 Hhc Rc Hc0 Rl Hle. cbn [turn_ok]. split; [right; unfold ginv; rewrite Rc, Hc0; repeat split; lia | split; [exact Rl | exact Hle]]. }
      specialize (Rpos eq_refl Hm Hhdr). assert (Hlen : len inp1 < len inp) by (clear - Rpos Rlen; lia). clear Rpos Rex Rsh Rlen Rs Hlt0.
      destruct (N.leb_spec g_hs (g_off st1)) as [Hfull|Hpart].
      2:{ refine (conj _ (conj Hhc (conj _ (conj Rl (conj _ (or_introl _)))))); [congruence | lia | congruence | lia]. }
      (* the header is complete: GetBodySize and the size gate *)
      assert (Hbad : turn_ok inp (TStop (mkG (g_cap st1) (g_off st1) (g_data st1) true (g_scr st1)) l1 inp1))
        by (cbn [turn_ok g_err]; split; [left; reflexivity | split; [exact Rl | lia]]).
      destruct ((c_MUSCLE_MESSAGE_ENCODING_DEFAULT <=? enc_word (g_data st1)) && (enc_word (g_data st1) <=? c_MUSCLE_MESSAGE_ENCODING_END_MARKER - 1));
        [|exact Hbad].
      set (body := body_size (g_data st1)).
      destruct (N.leb_spec body max_in) as [Hbm|Hbm]; cbn [andb]; [|exact Hbad].
      destruct (N.leb_spec body (g_nolim - g_hs)) as [Hbn|Hbn]; [|exact Hbad].
      destruct (N.leb_spec body (if g_hs <? cap0 then cap0 - g_hs else 0)) as [Hfit|Hbig]; cbn [g_cap g_off g_err].
      - (* TruncateToLength(hs+bodySize) *)
        refine (conj eq_refl (conj _ (conj _ (conj Rl (conj eq_refl (or_introl _)))))); lia.
      - (* a bigger buffer: GetByteBufferFromPool(hs+bodySize), memcpy of the header *)
        rewrite (u32_small (g_hs + body)) by lia.
        refine (conj eq_refl (conj _ (conj _ (conj _ (conj eq_refl (or_introl _)))))); try lia.
        apply glok_write; [apply glok_alloc; [exact Rl | unfold abound; lia] | lia]. }
    destruct hp as [[[[[[st2 l2] inp2] maxb2] cap2]|]|[[s lg] i]]; [apply body_phase_spec; exact Hhp | contradiction | exact Hhp].
  Qed.

  (* the whole loop: soundness and termination *)
  Lemma recv_loop_spec fuel : forall st l inp maxb,
    (g_err st = true \/ ginv st) -> glok l -> (length inp < fuel)%nat ->
    exists s lg i, recv_loop true max_in unflat fuel st l inp maxb = Some (s, lg, i) /\
                   (g_err s = true \/ ginv s) /\ glok lg /\ len i <= len inp.
  Proof.
    induction fuel as [|f IH]; intros st l inp maxb Hi Hl Hf; [lia|].
    cbn [recv_loop].
    destruct (N.eqb_spec maxb 0) as [Hz|Hz]; cbn [orb].
    - exists st, l, inp. split; [reflexivity | split; [assumption | split; [assumption | lia]]].
    - destruct (g_err st) eqn:Ee.
      + exists st, l, inp. split; [reflexivity | split; [left; exact Ee | split; [assumption | lia]]].
      + destruct Hi as [Hi|Hi]; [congruence|].
        pose proof (recv_turn_spec st l inp maxb Hi Hl Ee ltac:(lia)) as T.
        destruct (recv_turn true max_in unflat st l inp maxb) as [s lg i|s lg i mb].
        * exists s, lg, i. destruct T as (T1 & T2 & T3). split; [reflexivity | split; [assumption | split; assumption]].
        * destruct T as (T1 & T2 & T3 & T4).
          assert (Hlen : (length i < length inp)%nat) by (rewrite !len_nat in T4; lia).
          destruct (IH s lg i mb (or_intror T1) T2 ltac:(lia)) as (s' & lg' & i' & E & A & B & C).
          exists s', lg', i'. split; [exact E | split; [assumption | split; [assumption | lia]]].
  Qed.

  Lemma drive_spec fuel : forall st l inp,
    (g_err st = true \/ ginv st) -> glok l -> (length inp < fuel)%nat ->
    exists s lg i, drive true max_in unflat fuel st l inp = Some (s, lg, i) /\ (g_err s = true \/ ginv s) /\ glok lg.
  Proof.
    induction fuel as [|f IH]; intros st l inp Hi Hl Hf; [lia|].
    cbn [drive]. unfold do_input.
    destruct (recv_loop_spec (S (S (length inp))) st l inp g_nolim Hi Hl ltac:(lia)) as (s & lg & i & E & A & B & C).
    rewrite E.
    destruct (N.ltb_spec (len i) (len inp)) as [Hlt|Hge].
    - assert (Hlen : (length i < length inp)%nat) by (rewrite !len_nat in Hlt; lia).
      apply (IH s lg i A B). lia.
    - exists s, lg, i. split; [reflexivity | split; assumption].
  Qed.

  Lemma feed_spec : forall segs st l,
    (g_err st = true \/ ginv st) -> glok l ->
    exists s lg, feed true max_in unflat st l segs = Some (s, lg) /\ (g_err s = true \/ ginv s) /\ glok lg.
  Proof.
    induction segs as [|sg t IH]; intros st l Hi Hl; cbn [feed].
    - exists st, l. split; [reflexivity | split; assumption].
    - unfold feed_segment.
      destruct (drive_spec (S (length sg)) st l sg Hi Hl ltac:(lia)) as (s & lg & i & E & A & B).
      rewrite E. apply IH; assumption.
  Qed.
End RecvProofs.

(* ------------------------------------------------------------------ the theorems *)
(* every segmentation of every byte stream, every parser, every configured maximum: all writes in bounds, all buffer
   requests bounded, and the run terminates *)
Theorem recv_sound_proof : forall max_in unflat (segs : list bytes),
  exists s lg, feed true max_in unflat g_init glog0 segs = Some (s, lg) /\
    Forall write_ok (gl_writes lg) /\
    Forall (fun n => n <= N.max g_scratch (g_hs + N.min max_in (g_nolim - g_hs))) (gl_allocs lg).
Proof.
  intros max_in unflat segs.
  destruct (feed_spec max_in unflat segs g_init glog0) as (s & lg & E & _ & [A B]).
  - right. exact I.
  - split; constructor.
  - exists s, lg. repeat split; assumption.
Qed.

(* finding F3 in the pinned code: the header (bodySize = 2^32-8, default encoding) alone makes the machine request a
   0-byte buffer and copy the 8 header bytes into it *)
Definition f3_header : bytes := le32 4294967288 ++ le32 c_MUSCLE_MESSAGE_ENCODING_DEFAULT.
Theorem recv_f3_refuted_proof :
  exists s lg i mb, recv_turn false g_nolim (fun _ => false) g_init glog0 f3_header g_nolim = TGo s lg i mb /\
                    In (0, 0, g_hs) (gl_writes lg) /\ ~ write_ok (0, 0, g_hs).
Proof.
  eexists _, _, _, _. split; [vm_compute; reflexivity|]. split.
  - cbn. left. reflexivity.
  - unfold write_ok. vm_compute. intro H. apply H. reflexivity.
Qed.

(* ... and after that copy its loop makes no progress any more (cursor 8 beyond a 0-byte buffer): no fuel suffices *)
Theorem recv_f3_spins_proof : feed false g_nolim (fun _ => false) g_init glog0 [f3_header] = None.
Proof. vm_compute. reflexivity. Qed.
