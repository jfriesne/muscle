(* C03 -- proofs about the SLIP gateway model: encoder/decoder round trip for every
   segmentation, and the decoder laws. *)
From Coq Require Import List NArith ZArith Bool Lia ZifyBool.
From Muscle Require Import Gen.Consts Gw.GwBase Gw.GwLemmas Gw.RawModel Gw.SlipModel Gw.RawProofs Gw.TransportProofs.
Import ListNotations.
Local Open Scope N_scope.

(* side conditions on the translated constants (re-checked whenever the C++ constants change) *)
Lemma slip_esc_ne_end : (c_slip_esc =? c_slip_end) = false.
Proof. vm_compute. reflexivity. Qed.
Lemma slip_eend_ne_end : (c_slip_escape_end =? c_slip_end) = false.
Proof. vm_compute. reflexivity. Qed.
Lemma slip_eesc_ne_end : (c_slip_escape_esc =? c_slip_end) = false.
Proof. vm_compute. reflexivity. Qed.
Lemma slip_eesc_ne_eend : (c_slip_escape_esc =? c_slip_escape_end) = false.
Proof. vm_compute. reflexivity. Qed.

(* ---- the split lemma: feeding a ++ b = feeding a, then b *)
Lemma sl_feed_app a st b :
  sl_feed st (a ++ b) =
  let '(st1, o1) := sl_feed st a in let '(st2, o2) := sl_feed st1 b in (st2, o1 ++ o2).
Proof. exact (bfeed_app sl_byte a st b). Qed.

(* ---- decoding an escaped chunk *)
Lemma sl_feed_escaped c : forall p,
  sl_feed (mkSR p false) (flat_map sl_esc_byte c) = (mkSR (p ++ c) false, []).
Proof.
  induction c as [|b c IH]; intros p; cbn [flat_map].
  - cbn. now rewrite app_nil_r.
  - rewrite sl_feed_app.
    assert (Hb : sl_feed (mkSR p false) (sl_esc_byte b) = (mkSR (p ++ [b]) false, [])).
    { unfold sl_esc_byte.
      destruct (b =? c_slip_end) eqn:E1.
      - apply N.eqb_eq in E1. subst b. cbn [sl_feed sl_byte sr_esc sr_pend].
        rewrite slip_esc_ne_end, N.eqb_refl. cbn [sl_feed sl_byte sr_esc sr_pend].
        rewrite slip_eend_ne_end, N.eqb_refl. reflexivity.
      - destruct (b =? c_slip_esc) eqn:E2.
        + apply N.eqb_eq in E2. subst b. cbn [sl_feed sl_byte sr_esc sr_pend].
          rewrite slip_esc_ne_end, N.eqb_refl. cbn [sl_feed sl_byte sr_esc sr_pend].
          rewrite slip_eesc_ne_end, slip_eesc_ne_eend, N.eqb_refl. reflexivity.
        + cbn [sl_feed sl_byte sr_esc sr_pend]. rewrite E1, E2. reflexivity. }
    rewrite Hb, IH. now rewrite <- app_assoc.
Qed.

Lemma sl_feed_encode c : c <> [] -> sl_feed (mkSR [] false) (sl_encode c) = (mkSR [] false, [c]).
Proof.
  intros Hc. unfold sl_encode.
  change ([c_slip_end] ++ flat_map sl_esc_byte c ++ [c_slip_end])
    with (c_slip_end :: (flat_map sl_esc_byte c ++ [c_slip_end])).
  cbn [sl_feed]. unfold sl_byte at 1. cbn [sr_esc sr_pend]. rewrite N.eqb_refl. cbn [sl_flush].
  rewrite sl_feed_app, sl_feed_escaped. cbn [app sl_feed]. unfold sl_byte. cbn [sr_esc sr_pend].
  rewrite N.eqb_refl. destruct c; [contradiction|reflexivity].
Qed.

Lemma sl_feed_frames cs : Forall nonempty cs ->
  sl_feed (mkSR [] false) (concat (map sl_encode cs)) = (mkSR [] false, cs).
Proof.
  induction 1 as [|c t Hc _ IH]; cbn [map concat]; [reflexivity|].
  rewrite sl_feed_app, (sl_feed_encode c Hc), IH. reflexivity.
Qed.

(* ---- the SLIP gateway, end to end *)
Definition slip_xform (m : list bytes) : list bytes := map sl_encode (r_trunc m).

Lemma slip_xform_ne m : Forall nonempty (slip_xform m).
Proof.
  unfold slip_xform. apply Forall_forall. intros x Hx. apply in_map_iff in Hx.
  destruct Hx as (c & <- & _). unfold sl_encode. discriminate.
Qed.

Lemma slip_wire_frames ms : Forall raw_wfm ms -> rs_qbytes slip_xform ms = concat (map sl_encode (concat ms)).
Proof.
  unfold rs_qbytes, slip_xform.
  induction 1 as [|m t Hm _ IH]; cbn; auto.
  rewrite IH, (r_trunc_id _ Hm), map_app, concat_app. reflexivity.
Qed.

Lemma slip_all_nonempty ms : Forall raw_wfm ms -> Forall nonempty (concat ms).
Proof.
  induction 1 as [|m t Hm _ IH]; cbn; [constructor|]. apply Forall_app; auto.
Qed.

Definition slip_sys0 := @sys0 (list bytes) (list bytes) rsend srecv rs_init sr_init.
Definition slip_sender := rs_sender slip_xform slip_xform_ne raw_wfm.

Lemma sl_do_input_spec st maxb scr pipe st' o pipe' :
  sl_do_input st maxb scr pipe = (st', o, pipe') ->
  exists x, pipe = x ++ pipe' /\ sl_feed st x = (st', concat o) /\
            blen x = N.min (N.min (r_scratch 0 c_MUSCLE_NO_LIMIT) maxb) (N.min (io_k scr) (blen pipe)).
Proof.
  unfold sl_do_input.
  destruct (io_read (N.min (r_scratch 0 c_MUSCLE_NO_LIMIT) maxb) scr pipe) as [[x p1] s1] eqn:Er.
  apply io_read_spec in Er. destruct Er as (Hp & Hb & _).
  destruct (sl_feed st x) as [st1 frames] eqn:Ef.
  intros H. inversion H; subst; clear H.
  exists x. split; auto. split; auto.
  rewrite Ef. destruct frames; cbn; [reflexivity|now rewrite app_nil_r].
Qed.

(* the receiver decodes frames, whatever their grouping into Messages; it has no error state *)
Lemma slip_decoder :
  decoder_laws sl_do_input sr_init raw_wfm (rs_qbytes slip_xform) (@concat bytes) (@concat bytes)
    sl_byte (fun r => r) (fun _ => True) (fun _ => True) (fun _ => False).
Proof.
  split; auto; try contradiction.
  - exact (@concat_app bytes).
  - intros ms r c maxb scr pipe rest r' o' pipe' _ _ _ H.
    destruct (sl_do_input_spec _ _ _ _ _ _ _ H) as (x & Hp & Hf & _). eauto.
  - intros ms Hwf. exists sr_init. split; [exact I|].
    rewrite slip_wire_frames by exact Hwf. exact (sl_feed_frames _ (slip_all_nonempty ms Hwf)).
  - intros ms r c maxb scr pipe rest r' o' pipe' _ _ _ _ H Hne Hm Hk.
    destruct (sl_do_input_spec _ _ _ _ _ _ _ H) as (x & -> & _ & Hb). apply app_shorter. intros ->. cbn [app] in *.
    pose proof (blen_pos _ Hne). assert (1 <= r_scratch 0 c_MUSCLE_NO_LIMIT) by (vm_compute; discriminate).
    change (blen []) with 0 in Hb. lia.
Qed.
