(* C12 at the level of Messages, mini tunnel without a slave gateway: composition of mini_sound /
   mini_complete with C01's model of Message::Flatten/Unflatten (see Gw/TunnelMsg.v). *)
From Coq Require Import List NArith Lia.
From Coq Require Import Strings.Byte.
From Muscle Require Import Gw.Tunnel Gw.TunnelProofs Gw.MiniTunnel Gw.MiniTunnelProofs Gw.TunnelMsg.
From Muscle Require Msg.MsgDefs Msg.MsgModel Msg.MsgReprProofs.
Import ListNotations.
Local Open Scope N_scope.

Definition mlower (o : Mop) : mop :=
  match o with MAddMsg M => MAdd (to_buffer M) | MOutput mb bud => MOut mb bud end.

Lemma madded_mlower ops : madded (map mlower ops) = map to_buffer (sent_msgs ops).
Proof. induction ops as [|[M|mb bud] ops IH]; cbn [map mlower madded sent_msgs]; [reflexivity| |exact IH]. now rewrite IH. Qed.

Lemma no_msetid_mlower ops : no_msetid (map mlower ops).
Proof. induction ops as [|[M|mb bud] ops IH]; cbn [map mlower no_msetid]; auto. Qed.

Record mini_msg_run := mkMiniMsgRun { mm_cfg : mcfg; mm_pid0 : N; mm_mops : list Mop }.

Definition mini_msg_run_ok (s : mini_msg_run) : Prop :=
  mcfg_ok (mm_cfg s) /\ mm_pid0 s < 2 ^ 24 /\ Forall MsgModel.wf (sent_msgs (mm_mops s)).

Section WithZlib.

Variable deflate : N -> list byte -> option (list byte).
Variable inflate : list byte -> option (list byte).
Hypothesis inflate_deflate : forall lvl x d, deflate lvl x = Some d -> inflate d = Some x.

Definition mlower_run (s : mini_msg_run) : mini_run := mkMRun (mm_cfg s) (mm_pid0 s) (map mlower (mm_mops s)).

Lemma mlower_run_ok s : mini_msg_run_ok s -> mr_ok (mlower_run s).
Proof.
  intros (Hc & Hpid & Hwf). unfold mr_ok, mlower_run, mr_msgs. cbn [mr_cfg mr_pid0 mr_ops].
  split; [exact Hc|]. split; [exact Hpid|]. split; [apply no_msetid_mlower|].
  rewrite madded_mlower. now apply to_buffers_small.
Qed.

Theorem mini_message_sound :
  forall (rc : rcfg) (who : addr -> option mini_msg_run) (net : list (addr * packet)),
    rc_misc rc = false -> PHS <= rc_mtu rc ->
    (forall a s, who a = Some s -> mini_msg_run_ok s /\ (mc_level (mm_cfg s) = 0 \/ mc_mtu (mm_cfg s) <= rc_mtu rc)) ->
    (forall a s p, who a = Some s -> In (a, p) net -> In p (mr_packets deflate (mlower_run s)) \/ foreign (rc_magic rc) p) ->
    forall a s D, who a = Some s -> In (a, D) (deliver_msgs (mrecv_all inflate rc net)) ->
      exists M, In M (sent_msgs (mm_mops s)) /\ D = MsgModel.rt M /\ MsgModel.flatten D = MsgModel.flatten M.
Proof.
  intros rc who net Hmisc Hmtu Hok Hnet a s D Ha.
  apply delivered_rt; [apply (Hok a s Ha)|]. intros b Hb.
  rewrite <- madded_mlower. change (In b (mr_msgs (mlower_run s))).
  apply (mini_sound deflate inflate inflate_deflate rc (fun x => option_map mlower_run (who x)) net Hmisc Hmtu) with (a := a);
    [| |now rewrite Ha|exact Hb].
  - intros x sx Hx. apply option_map_Some in Hx as (s0 & E0 & ->).
    destruct (Hok x s0 E0) as [H1 H2]. split; [now apply mlower_run_ok|exact H2].
  - intros x sx p Hx Hp. apply option_map_Some in Hx as (s0 & E0 & ->). eapply Hnet; eassumption.
Qed.

Definition mfitsM (c : mcfg) (M : Message) : bool := mfits c (to_buffer M).

Theorem mini_message_complete :
  forall rc c a pid0 (mops : list Mop) st pkts,
    mcfg_ok c -> rc_misc rc = false ->
    mc_magic c = rc_magic rc -> sex_ok rc (mc_sex c) = true -> mc_mtu c <= rc_mtu rc ->
    pid0 < 2 ^ 24 -> Forall MsgModel.wf (sent_msgs mops) ->
    mrun deflate c (m_init pid0) (map mlower mops) = (st, pkts) ->
    m_pkt st = [] -> m_q st = [] ->
    deliver_msgs (mrecv_all inflate rc (map (pair a) pkts))
    = map (pair a) (map MsgModel.rt (filter (mfitsM c) (sent_msgs mops))).
Proof.
  intros rc c a pid0 mops st pkts Hc Hmisc Hmg Hsx Hmtu Hpid Hwf Hrun Hpk Hq.
  pose proof (to_buffers_small _ Hwf) as Hsz. rewrite <- madded_mlower in Hsz.
  destruct (mini_complete deflate inflate inflate_deflate rc c a pid0 (map mlower mops) st pkts
              Hc Hmisc Hmg Hsx Hmtu Hpid (no_msetid_mlower _) Hsz Hrun Hpk) as (done & Hd & Hout).
  rewrite Hq, app_nil_r in Hd. subst done. rewrite Hout, madded_mlower, filter_map_comm.
  apply deliver_msgs_map. exact (incl_Forall (incl_filter _ _) Hwf).
Qed.

End WithZlib.
