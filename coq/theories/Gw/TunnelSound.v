(* C12 -- proofs about the PacketTunnelIOGateway model: soundness of the receiver.

   For a source whose fragments all describe slices of Messages of a history with pairwise
   distinct ids, every buffer the receiver delivers for that source is one of those Messages --
   whatever the order, loss or duplication of the fragments, and whatever arrives from the other
   sources (their datagrams are arbitrary bytes). *)
From Coq Require Import List NArith Bool Lia.
From Coq Require Import Strings.Byte.
From Muscle Require Import Common.LE Gw.Tunnel Gw.TunnelProofs.
Import ListNotations.
Local Open Scope N_scope.

Definition hist := list (N * msg).     (* (message id, Message bytes) of everything one source ever sent *)

(* the fragment is a slice of the Message that carries its id *)
Definition valid (h : hist) (f : frag) : Prop :=
  exists m, In (f_id f, m) h /\ f_total f = lenN m /\ f_off f + lenN (f_data f) <= lenN m
            /\ f_data f = takeN (lenN (f_data f)) (dropN (f_off f) m).

(* invariant of one source's receive state *)
Definition good (h : hist) (o : option rstate) : Prop :=
  match o with
  | None => True
  | Some rs =>
      r_off rs = 0 \/
      exists m, In (r_id rs, m) h /\ lenN (r_buf rs) = lenN m /\ r_off rs <= lenN m
                /\ takeN (r_off rs) (r_buf rs) = takeN (r_off rs) m
  end.

Lemma hist_functional (h : hist) k m1 m2 :
  NoDup (map fst h) -> In (k, m1) h -> In (k, m2) h -> m1 = m2.
Proof.
  induction h as [|[k0 m0] h IH]; cbn [map fst In]; intros Hnd H1 H2; [tauto|].
  inversion Hnd as [|? ? Hn Hd]; subst.
  destruct H1 as [H1|H1], H2 as [H2|H2].
  - congruence.
  - injection H1 as -> ->. exfalso. apply Hn. apply in_map_iff. now exists (k, m2).
  - injection H2 as -> ->. exfalso. apply Hn. apply in_map_iff. now exists (k, m1).
  - now apply IH.
Qed.

Lemma splice_length (buf dat : list byte) off :
  off + lenN dat <= lenN buf ->
  lenN (takeN off buf ++ dat ++ dropN (off + lenN dat) buf) = lenN buf.
Proof. intros H. rewrite !lenN_app, lenN_takeN, lenN_dropN. lia. Qed.

Lemma splice_prefix (buf dat m : list byte) off :
  off + lenN dat <= lenN buf ->
  takeN off buf = takeN off m ->
  dat = takeN (lenN dat) (dropN off m) ->
  takeN (off + lenN dat) (takeN off buf ++ dat ++ dropN (off + lenN dat) buf) = takeN (off + lenN dat) m.
Proof.
  intros HL HP HD.
  assert (Ho : lenN (takeN off buf) = off) by (rewrite lenN_takeN; lia).
  rewrite takeN_app_ge by lia. rewrite Ho.
  replace (off + lenN dat - off) with (lenN dat) by lia.
  rewrite takeN_app_exact. rewrite takeN_add, <- HD, HP. reflexivity.
Qed.

Lemma accept_sound h rs f rs' out :
  NoDup (map fst h) -> valid h f -> good h (Some rs) ->
  accept rs f = (rs', out) ->
  good h (Some rs') /\ forall b, In b out -> In b (map snd h).
Proof.
  intros Hnd (m & Hin & Htot & Hle & Hdat) Hg. unfold accept.
  destruct ((f_id f =? r_id rs) && (f_total f =? lenN (r_buf rs)) && (f_off f =? r_off rs)
            && negb (two32 <=? f_off f + lenN (f_data f)) && (f_off f + lenN (f_data f) <=? lenN (r_buf rs))) eqn:T.
  - apply andb_prop in T as [T T5]. apply andb_prop in T as [T T4]. apply andb_prop in T as [T T3].
    apply andb_prop in T as [T1 T2].
    apply N.eqb_eq in T1, T2, T3. apply N.leb_le in T5.
    (* the buffer is being assembled for the very Message the fragment is a slice of *)
    assert (HB : lenN (r_buf rs) = lenN m /\ takeN (r_off rs) (r_buf rs) = takeN (r_off rs) m).
    { cbn [good] in Hg. destruct Hg as [Hz|(m0 & Hin0 & HL0 & Hoff0 & HP0)].
      - split; [congruence|]. rewrite Hz. reflexivity.
      - assert (m0 = m) by (eapply hist_functional; [eassumption| |]; [exact Hin0|rewrite <- T1; exact Hin]).
        subst m0. auto. }
    destruct HB as [HL HP]. rewrite <- T3 in HP.
    set (buf' := takeN (f_off f) (r_buf rs) ++ f_data f ++ dropN (f_off f + lenN (f_data f)) (r_buf rs)).
    assert (HL' : lenN buf' = lenN m) by (unfold buf'; rewrite splice_length; lia).
    assert (HP' : takeN (f_off f + lenN (f_data f)) buf' = takeN (f_off f + lenN (f_data f)) m).
    { unfold buf'. apply splice_prefix; assumption. }
    destruct (r_off rs + lenN (f_data f) =? lenN (r_buf rs)) eqn:Tfin; intros E; injection E as <- <-.
    + apply N.eqb_eq in Tfin. split; [left; reflexivity|].
      intros b [<-|[]]. apply in_map_iff. exists (f_id f, m). split; [|exact Hin]. cbn [snd].
      symmetry. apply list_eq_of_takeN; [lia|].
      replace (lenN buf') with (f_off f + lenN (f_data f)) by lia. exact HP'.
    + split; [|intros b []]. right. exists m. cbn [r_id r_off r_buf].
      rewrite <- T1, <- T3. repeat split; try assumption; lia.
  - intros E. injection E as <- <-. split; [left; reflexivity|intros b []].
Qed.

Lemma rs_step_sound h o f o' out :
  NoDup (map fst h) -> valid h f -> good h o ->
  rs_step o f = (o', out) ->
  good h o' /\ forall b, In b out -> In b (map snd h).
Proof.
  intros Hnd Hv Hg. unfold rs_step. destruct o as [rs|].
  - destruct (accept (restart_if_new rs f) f) as [rs' out'] eqn:Ha. intros E. injection E as <- <-.
    apply (accept_sound h (restart_if_new rs f) f rs' out' Hnd Hv); [|exact Ha].
    unfold restart_if_new. destruct ((f_off f =? 0) && negb (f_id f =? r_id rs)); [cbn [good]; left; reflexivity|exact Hg].
  - destruct (f_off f =? 0).
    + destruct (accept (mkR (f_id f) 0 (junk (f_total f))) f) as [rs' out'] eqn:Ha. intros E. injection E as <- <-.
      apply (accept_sound h (mkR (f_id f) 0 (junk (f_total f))) f rs' out' Hnd Hv); [|exact Ha]. cbn [good]. left; reflexivity.
    + intros E. injection E as <- <-. split; [exact I|intros b []].
Qed.

Lemma rs_steps_sound h fs : forall o o' out,
  NoDup (map fst h) -> Forall (valid h) fs -> good h o ->
  rs_steps o fs = (o', out) ->
  good h o' /\ forall b, In b out -> In b (map snd h).
Proof.
  induction fs as [|f fs IH]; intros o o' out Hnd Hv Hg; cbn [rs_steps].
  - intros E. injection E as <- <-. split; [exact Hg|intros b []].
  - inversion Hv as [|? ? Hf Hfs]; subst.
    destruct (rs_step o f) as [o1 out1] eqn:E1. destruct (rs_steps o1 fs) as [o2 out2] eqn:E2.
    intros E. injection E as <- <-.
    destruct (rs_step_sound h o f o1 out1 Hnd Hf Hg E1) as [Hg1 Ho1].
    destruct (IH o1 o2 out2 Hnd Hfs Hg1 E2) as [Hg2 Ho2].
    split; [exact Hg2|]. intros b Hb. apply in_app_iff in Hb as [Hb|Hb]; auto.
Qed.

(* ------------------------------------------------------------------ the whole table, the whole network *)

Section Network.

Variable rc : rcfg.
Variable who : addr -> option hist.      (* the genuine sources and what each of them ever sent *)

Definition tbl_good (t : table) : Prop :=
  tbl_wf t /\ forall a h, who a = Some h -> good h (tbl_find a t).

(* besides a source's Messages the receiver hands over only datagrams that are not in tunnel format,
   verbatim (as cut to its MTU), and only when told to (SetAllowMiscIncomingData) *)
Definition misc_passed (p : packet) (m : msg) : Prop :=
  rc_misc rc = true /\ m = takeN (rc_mtu rc) p
  /\ (lenN m < FHS \/ first_word_is (rc_magic rc) m = false).

Lemma recv_packet_sound t a p t' out :
  (forall h, who a = Some h -> NoDup (map fst h) /\ Forall (valid h) (frags_of rc p)) ->
  tbl_good t ->
  recv_packet rc t a p = (t', out) ->
  tbl_good t' /\ forall b m, In (b, m) out -> b = a /\ (misc_passed p m \/ forall h, who a = Some h -> In m (map snd h)).
Proof.
  intros Hgen [Hwf Hg].
  destruct (recv_packet_cases rc a p) as [(Ec & Hm) | Ec]; rewrite Ec; clear Ec.
  { intros E. injection E as <- <-. split; [split; assumption|].
    intros b m [E|[]]. injection E as <- <-. split; [reflexivity|]. left. split; [apply Hm|]. split; [reflexivity|apply Hm]. }
  pose proof (recv_frags_own t a (frags_of rc p) Hwf) as Hown.
  destruct (recv_frags t a (frags_of rc p)) as [t1 o1] eqn:E1.
  destruct (rs_steps (tbl_find a t) (frags_of rc p)) as [r1 p1] eqn:E2.
  destruct Hown as (Hwf1 & Hf1 & ->).
  intros E. injection E as <- <-.
  (* a's own entry follows rs_steps, which is sound for whatever history a has *)
  assert (Ha : forall h, who a = Some h -> good h r1 /\ forall b, In b p1 -> In b (map snd h)).
  { intros h Hh. destruct (Hgen h Hh) as [Hnd Hv]. eapply rs_steps_sound; try eassumption. now apply Hg. }
  split.
  - split; [exact Hwf1|]. intros b h Hb.
    destruct (N.eq_dec a b) as [->|Hab]; [rewrite Hf1; now apply Ha|].
    pose proof (recv_frags_other t a b (frags_of rc p) Hwf Hab) as Hoth. rewrite E1 in Hoth. cbn [fst] in Hoth.
    destruct Hoth as [E|E]; rewrite E; [now apply Hg|exact I].
  - intros b m Hin. apply in_map_iff in Hin as (m' & E & Hin'). injection E as <- <-.
    split; [reflexivity|]. right. intros h Hb. now apply (Ha h Hb).
Qed.

Lemma recv_all_sound net : forall t t' out,
  (forall a p h, In (a, p) net -> who a = Some h -> NoDup (map fst h) /\ Forall (valid h) (frags_of rc p)) ->
  tbl_good t ->
  recv_all rc t net = (t', out) ->
  tbl_good t' /\ forall a m h, In (a, m) out -> who a = Some h ->
                   In m (map snd h) \/ exists p, In (a, p) net /\ misc_passed p m.
Proof.
  induction net as [|[a p] net IH]; intros t t' out Hgen Hg; cbn [recv_all].
  - intros E. injection E as <- <-. split; [exact Hg|intros a m h []].
  - destruct (recv_packet rc t a p) as [t1 o1] eqn:E1. destruct (recv_all rc t1 net) as [t2 o2] eqn:E2.
    intros E. injection E as <- <-.
    destruct (recv_packet_sound t a p t1 o1 (fun h Hh => Hgen a p h (or_introl eq_refl) Hh) Hg E1) as [Hg1 Ho1].
    destruct (IH t1 t2 o2 (fun a' p' h' Hin Hh => Hgen a' p' h' (or_intror Hin) Hh) Hg1 E2) as [Hg2 Ho2].
    split; [exact Hg2|]. intros b m h Hin Hb. apply in_app_iff in Hin as [Hin|Hin].
    + destruct (Ho1 b m Hin) as [-> [Hm|Hm]].
      * right. exists p. split; [now left|exact Hm].
      * left. now apply Hm.
    + destruct (Ho2 b m h Hin Hb) as [Hm|(p' & Hp' & Hm)]; [now left|].
      right. exists p'. split; [now right|exact Hm].
Qed.

Lemma tbl_good_nil : tbl_good [].
Proof. split; [constructor|]. intros a h _. exact I. Qed.

End Network.
