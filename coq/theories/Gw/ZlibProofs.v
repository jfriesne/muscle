(* C03 -- the zlib encodings: the codec premise of FrameProofs is derived from a premise about
   zlib itself (inflate undoes deflate on streams that are in step), so the sender and decoder laws
   hold for every zlib level, for dependent and independent deflation, and for streams that mix
   compressed Messages with Messages too small to be compressed. *)
From Coq Require Import List NArith ZArith Bool Lia ZifyBool.
From Muscle Require Import Gen.Consts Gw.GwBase Gw.GwLemmas Gw.FrameModel Gw.ZlibModel Gw.TransportProofs Gw.FrameProofs Gw.FrameDefault.
Import ListNotations.
Local Open Scope N_scope.

Lemma z_default_not_zlib : z_in_range c_MUSCLE_MESSAGE_ENCODING_DEFAULT = false.
Proof. vm_compute. reflexivity. Qed.
Lemma z_range_in_gateway_range e : z_in_range e = true ->
  c_MUSCLE_MESSAGE_ENCODING_DEFAULT <= e <= c_MUSCLE_MESSAGE_ENCODING_END_MARKER - 1.
Proof.
  unfold z_in_range, z_enc1, z_enc9. intros H. apply andb_true_iff in H. destruct H as [H1 H2].
  assert (c_MUSCLE_MESSAGE_ENCODING_DEFAULT <= c_MUSCLE_MESSAGE_ENCODING_ZLIB_1) by (vm_compute; discriminate).
  assert (c_MUSCLE_MESSAGE_ENCODING_ZLIB_9 <= c_MUSCLE_MESSAGE_ENCODING_END_MARKER - 1) by (vm_compute; discriminate).
  lia.
Qed.
Lemma z_magics_differ : (c_zlib_hdr_dependent =? c_zlib_hdr_independent) = false.
Proof. vm_compute. reflexivity. Qed.
Lemma z_magic_small : c_zlib_hdr_dependent < two32 /\ c_zlib_hdr_independent < two32.
Proof. vm_compute. auto. Qed.
Lemma z_min_size_pos : f_hs < c_gw_zlib_min_size.
Proof. vm_compute. reflexivity. Qed.

Section ZlibProofs.
  Variables DS IS : Type.
  Variable ds_init : N -> DS.
  Variable is_init : IS.
  Variable deflate : DS -> bool -> bytes -> DS * bytes.
  Variable inflate : IS -> bool -> bytes -> N -> IS * option bytes.
  Variable oenc : N.
  Variable indep : bool.
  Variable max_in : N.

  (* ---- the premise about zlib *)
  Variable zsync : DS -> IS -> Prop.          (* deflate and inflate streams in step *)
  Hypothesis zsync_init : forall level, zsync (ds_init level) is_init.
  Hypothesis zlib_roundtrip : forall ds is b, zsync ds is -> b <> [] ->
    exists is', inflate is indep (snd (deflate ds indep b)) (blen b) = (is', Some b) /\
                zsync (fst (deflate ds indep b)) is'.
  (* the domain of bodies: fits the receiver's limit and the size words, compressed or not *)
  Definition z_wfb (b : bytes) : Prop :=
    blen b <= max_in /\ f_hs + blen b < two32 /\ blen b < 2147483648 /\
    forall ds, z_hdr + blen (snd (deflate ds indep b)) <= max_in /\
               f_hs + z_hdr + blen (snd (deflate ds indep b)) < two32.

  Notation z_flat := (z_flat DS ds_init deflate oenc indep).
  Notation z_unflat := (z_unflat IS is_init inflate).
  Definition z_level : N := oenc - z_enc1 + 1.

  Definition z_sync (cs : zcs DS) (cr : zcr IS) : Prop :=
    match cs, cr with
    | None, None => True
    | Some (l, d), Some (l', i) => l = z_level /\ l' = z_level /\ zsync d i
    | _, _ => False
    end.

  Lemma z_flat_len c m : f_hs <= blen (snd (z_flat c m)).
  Proof.
    unfold ZlibModel.z_flat. destruct (_ && _).
    - destruct (deflate _ indep m) as [ds' defl]. cbn [snd]. rewrite !blen_app, !blen_le32, f_hs_is_8. lia.
    - cbn [snd]. rewrite !blen_app, !blen_le32, f_hs_is_8. lia.
  Qed.

  Lemma z_codec_sync cs cr m : z_sync cs cr -> z_wfb m ->
    exists hdr payload cr',
      snd (z_flat cs m) = hdr ++ payload /\ blen hdr = f_hs /\
      d_body_size hdr = Some (blen payload) /\
      blen payload <= max_in /\ f_hs + blen payload < two32 /\
      z_unflat cr (snd (z_flat cs m)) = (cr', Some m) /\ z_sync (fst (z_flat cs m)) cr'.
  Proof.
    intros Hs (Hm1 & Hm2 & Hm3 & Hdefl). unfold ZlibModel.z_flat.
    assert (H8 : f_hs = 8) by reflexivity.
    destruct ((c_gw_zlib_min_size <=? f_hs + blen m) && z_in_range oenc) eqn:Ecomp.
    - (* compressed *)
      apply andb_true_iff in Ecomp. destruct Ecomp as [Ebig Erange].
      fold z_level.
      set (ds := match cs with Some (l, d) => if l =? z_level then d else ds_init z_level | None => ds_init z_level end).
      set (is := match cr with Some (l, i) => if l =? z_level then i else is_init | None => is_init end).
      assert (Hz : zsync ds is).
      { subst ds is. destruct cs as [[l d]|], cr as [[l' i]|]; cbn in Hs; try contradiction; auto.
        destruct Hs as (-> & -> & Hz). now rewrite N.eqb_refl. }
      assert (Hmne : m <> []).
      { intros ->. change (blen []) with 0 in Ebig. pose proof z_min_size_pos. lia. }
      destruct (zlib_roundtrip ds is m Hz Hmne) as (is' & Hinf & Hz').
      specialize (Hdefl ds). unfold z_hdr in Hdefl.
      destruct (deflate ds indep m) as [ds' defl] eqn:Ed. cbn [fst snd] in *.
      set (magic := if indep then c_zlib_hdr_independent else c_zlib_hdr_dependent).
      assert (Hmagic : magic < two32) by (unfold magic; destruct indep; apply z_magic_small).
      (* the ZLibCodec header inside the gateway header *)
      destruct (frame_head magic (blen m) defl Hmagic) as (P1 & P2 & P3 & P4); [unfold two32; lia|].
      set (payload := le32 magic ++ le32 (blen m) ++ defl) in *.
      pose proof (z_range_in_gateway_range _ Erange) as Hrange.
      assert (Henc : z_enc1 + z_level - 1 = oenc) by (unfold z_level; unfold z_in_range in Erange; lia).
      rewrite Henc.
      destruct (frame_head (blen payload) oenc payload) as (E1 & E2 & E3 & E4);
        [lia|assert (c_MUSCLE_MESSAGE_ENCODING_END_MARKER < two32) by reflexivity; lia|].
      exists (le32 (blen payload) ++ le32 oenc), payload, (Some (z_level, is')).
      split; [now rewrite <- app_assoc|]. split; [reflexivity|].
      split; [apply d_body_size_hdr; [lia|exact Hrange]|].
      split; [lia|]. split; [lia|]. split; [|cbn; auto].
      unfold ZlibModel.z_unflat, u32. rewrite E1, E2, E3, E4, N.mod_small, N.eqb_refl, Erange by lia. cbn [negb].
      fold z_level. fold is. change z_hdr with f_hs. rewrite P1, P2, P3.
      assert (F1 : (f_hs <=? blen payload) && ((magic =? c_zlib_hdr_independent) || (magic =? c_zlib_hdr_dependent)) = true).
      { assert ((f_hs <=? blen payload) = true) as -> by lia. unfold magic. destruct indep; rewrite N.eqb_refl; auto using orb_true_r. }
      assert (F2 : (2147483648 <=? blen m) = false) by lia.
      assert (F3 : (blen m =? 0) = false) by (pose proof (blen_pos _ Hmne); lia).
      assert (F4 : (magic =? c_zlib_hdr_independent) = indep).
      { unfold magic. destruct indep; [apply N.eqb_refl|apply z_magics_differ]. }
      rewrite F1, F2, F3, F4, Hinf. reflexivity.
    - (* sent as it is, DEFAULT header, codecs untouched *)
      cbn [fst snd].
      destruct (frame_head (blen m) c_MUSCLE_MESSAGE_ENCODING_DEFAULT m) as (E1 & E2 & E3 & E4);
        [lia|exact enc_default_small|].
      exists (le32 (blen m) ++ le32 c_MUSCLE_MESSAGE_ENCODING_DEFAULT), m, cr.
      split; [now rewrite <- app_assoc|]. split; [reflexivity|].
      split; [apply d_body_size_hdr; [lia|vm_compute; split; discriminate]|].
      split; auto. split; auto. split; [|exact Hs].
      unfold ZlibModel.z_unflat, u32. rewrite E1, E2, E3, E4, N.mod_small, !N.eqb_refl, z_default_not_zlib by lia. reflexivity.
  Qed.

  Definition z_sys0 := f_sys0 bytes (zcs DS) (zcr IS) None None.
  Definition z_rem := fs_rem bytes (zcs DS) z_flat.
  Definition z_sender := f_sender bytes (zcs DS) z_flat None z_flat_len z_wfb.
  Definition z_decoder :=
    f_decoder bytes (zcs DS) (zcr IS) z_flat z_unflat d_body_size max_in None None z_flat_len z_sync z_wfb I z_codec_sync.
End ZlibProofs.
