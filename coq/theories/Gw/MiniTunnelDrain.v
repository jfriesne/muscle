(* C12 -- MiniPacketTunnelIOGateway model: "every Message that can fit into a packet is delivered" for
   scripts that end with a DoOutput call that is not cut short; sources do not interfere; the read loop. *)
From Coq Require Import List NArith Lia.
From Coq Require Import Strings.Byte.
From Muscle Require Import Common.LE Gw.Tunnel Gw.TunnelProofs Gw.MiniTunnel Gw.MiniTunnelProofs.
Import ListNotations.
Local Open Scope N_scope.

Section Drained.

Variable deflate : N -> list byte -> option (list byte).
Variable inflate : list byte -> option (list byte).
Hypothesis inflate_deflate : forall lvl x d, deflate lvl x = Some d -> inflate d = Some x.

Lemma madded_app ops1 ops2 : madded (ops1 ++ ops2) = madded ops1 ++ madded ops2.
Proof. induction ops1 as [|[m|mb bud|id] ops1 IH]; cbn [app madded]; [reflexivity| |exact IH|exact IH]. now rewrite IH. Qed.

Lemma no_msetid_app ops1 ops2 : no_msetid ops1 -> no_msetid ops2 -> no_msetid (ops1 ++ ops2).
Proof. induction ops1 as [|[m|mb bud|id] ops1 IH]; cbn [app no_msetid]; tauto. Qed.

(* Corollary: any script followed by one DoOutput call that is not cut short: EVERY Message that can fit
   into a packet at all is delivered, exactly once, in order -- with or without compression. *)
Theorem mini_complete_drained :
  forall rc c a pid0 ops mb bud,
    mcfg_ok c -> rc_misc rc = false ->
    mc_magic c = rc_magic rc -> sex_ok rc (mc_sex c) = true -> mc_mtu c <= rc_mtu rc ->
    pid0 < 2 ^ 24 -> no_msetid ops ->
    Forall (fun m => lenN m < two32) (madded ops) ->
    (let st1 := fst (mrun deflate c (m_init pid0) ops) in
     N.of_nat (mout_fuel st1) * mc_mtu c < mb /\ N.of_nat (mout_fuel st1) <= bud) ->
    mrecv_all inflate rc (map (pair a) (snd (mrun deflate c (m_init pid0) (ops ++ [MOut mb bud]))))
    = map (pair a) (filter (mfits c) (madded ops)).
Proof.
  intros rc c a pid0 ops mb bud Hc Hmisc Hmg Hsx Hmtu Hpid Hns Hsm Hbig.
  destruct (mrun deflate c (m_init pid0) (ops ++ [MOut mb bud])) as [st pkts] eqn:Hrun.
  assert (Hadd : madded (ops ++ [MOut mb bud]) = madded ops) by (rewrite madded_app; cbn; apply app_nil_r).
  assert (Hns2 : no_msetid (ops ++ [MOut mb bud])) by (apply no_msetid_app; cbn; auto).
  assert (Hdr : m_q st = [] /\ m_pkt st = []).
  { rewrite (run_app (mstep deflate c) (mrun deflate c) (fun _ => eq_refl) (fun _ _ _ => eq_refl)) in Hrun.
    destruct (mrun deflate c (m_init pid0) ops) as [st1 p1] eqn:E1. cbn [fst] in Hbig.
    cbn [mrun mstep] in Hrun. destruct (mout_loop deflate (mout_fuel st1) c mb 0 bud st1) as [p2 st2] eqn:E2.
    injection Hrun as <- <-.
    destruct (mrun_spec deflate c ops [] [] _ _ _ Hc Hns (minv_init _ _ Hpid) E1) as (mss & _ & Hinv1).
    destruct (mout_loop_spec deflate c _ _ _ _ _ _ _ _ _ Hc Hinv1 E2) as (_ & _ & _ & Hdr). apply Hdr.
    split; [unfold mpending, mout_fuel; destruct (lenN (m_pkt st1) =? 0); lia|]. split; [lia|apply Hbig]. }
  destruct Hdr as [Hq Hp].
  rewrite <- Hadd in Hsm.
  destruct (mini_complete deflate inflate inflate_deflate rc c a pid0 _ st pkts Hc Hmisc Hmg Hsx Hmtu Hpid Hns2 Hsm Hrun Hp)
    as (done & Hd & Hout).
  rewrite Hq, app_nil_r in Hd. cbn [snd]. rewrite Hout, <- Hd, Hadd. reflexivity.
Qed.

End Drained.

(* ------------------------------------------------------------------ several senders *)

Section MiniMulti.

Variable inflate : list byte -> option (list byte).

Definition mfrom (a : addr) {X} (d : addr * X) : bool := fst d =? a.

(* the mini receiver keeps no state: what it delivers under address a depends on a's datagrams only,
   for any number of sources and arbitrary datagrams *)
Theorem mini_noninterference rc a net :
  filter (mfrom a) (mrecv_all inflate rc net) = mrecv_all inflate rc (filter (mfrom a) net).
Proof.
  induction net as [|[b p] net IH]; [reflexivity|]. cbn [mrecv_all filter]. rewrite filter_app, IH.
  pose proof (mrecv_packet_tag inflate rc b p) as Htag.
  unfold mfrom at 3. cbn [fst]. destruct (N.eqb_spec b a) as [->|Hba]; cbn [mrecv_all].
  - f_equal. now apply filter_tag_all.
  - now rewrite (filter_tag_none a b _ Hba Htag : filter (mfrom a) (mrecv_packet inflate rc b p) = []).
Qed.

End MiniMulti.

Section MiniLoop.

Variable inflate : list byte -> option (list byte).

(* one DoInput(maxBytes) call = the consumed prefix of the queue, packet by packet *)
Theorem mrecv_loop_prefix : forall rc queue maxBytes total out rest,
  mrecv_loop inflate rc maxBytes total queue = (out, rest) ->
  exists n, rest = skipn n queue /\ mrecv_all inflate rc (firstn n queue) = out.
Proof.
  intros rc. induction queue as [|[a p] q IH]; intros mb tot out rest; cbn [mrecv_loop].
  - intros E. injection E as <- <-. exists 0%nat. auto.
  - destruct (tot <? mb).
    2:{ intros E. injection E as <- <-. exists 0%nat. auto. }
    destruct (lenN (takeN (rc_mtu rc) p) =? 0) eqn:Hz.
    + intros E. injection E as <- <-. exists 1%nat. split; [reflexivity|].
      cbn [firstn mrecv_all]. unfold mrecv_packet. rewrite Hz. reflexivity.
    + destruct (mrecv_loop inflate rc mb (tot + lenN (takeN (rc_mtu rc) p)) q) as [o2 r2] eqn:E2.
      intros E. injection E as <- <-.
      destruct (IH _ _ _ _ E2) as (n & Hr & Ha). exists (S n). split; [exact Hr|].
      cbn [firstn mrecv_all]. now rewrite Ha.
Qed.

End MiniLoop.
