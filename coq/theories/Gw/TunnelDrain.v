(* C12 -- proofs about the PacketTunnelIOGateway model: the output loop and the run of a sender.

   [out_loop] recurses on explicit fuel; [sstep] supplies [out_fuel st].  That is enough: a DoOutput
   call whose byte limit and transport do not cut it short leaves nothing queued and nothing held. *)
From Coq Require Import List NArith Lia.
From Coq Require Import Strings.Byte.
From Muscle Require Import Common.LE Gw.Tunnel Gw.TunnelProofs Gw.TunnelSender.
Import ListNotations.
Local Open Scope N_scope.

(* bytes still to send plus Messages still to finish *)
Definition work (off : N) (q : list msg) : nat := (length (concat q) - N.to_nat off + length q)%nat.

Lemma work_nil off : work off [] = 0%nat.
Proof. unfold work. cbn. lia. Qed.

Lemma work_cons off (m : msg) q :
  off <= lenN m -> work off (m :: q) = (length m - N.to_nat off + S (work 0 q))%nat.
Proof.
  unfold work, lenN. intros H. cbn [concat length]. rewrite app_length. cbn. lia.
Qed.

Lemma cursor_le off (m : msg) q : cursor_ok off (m :: q) -> off <= lenN m.
Proof. intros [->|(m0 & q0 & E & H)]; [lia|]. injection E as <- <-. lia. Qed.

(* every fragment of a chain takes at least one unit of work away *)
Lemma chain_work c id off q fs id' off' q' :
  chain c id off q fs id' off' q' -> cursor_ok off q -> (work off' q' + length fs <= work off q)%nat.
Proof.
  intros H. induction H; intros Hcur; cbn [length]; [lia| |];
    pose proof (cursor_le _ _ _ Hcur) as Hoff; rewrite (work_cons off m q Hoff : work off (m :: q) = _).
  - assert (Hcur' : cursor_ok (off + n) (m :: q)) by (right; exists m, q; auto).
    specialize (IHchain Hcur'). rewrite (work_cons (off + n) m q ltac:(lia) : work (off + n) (m :: q) = _) in IHchain.
    unfold lenN in *. lia.
  - specialize (IHchain (or_introl eq_refl)). unfold lenN in *. lia.
Qed.

Lemma fill_nonempty c ps id off q : q <> [] -> ps + FHS < sc_mtu c -> fst (fill c ps id off q) <> [].
Proof.
  destruct q as [|m q]; [congruence|]. intros _ Hroom. apply N.ltb_lt in Hroom. cbn [fill]. rewrite Hroom. cbv zeta.
  destruct (_ =? _); [destruct (fill _ _ _ _ q) as [fs1 [[id1 off1] q1]]|]; discriminate.
Qed.

Definition pending (st : sstate) : nat := (work (s_off st) (s_q st) + (if (lenN (s_pkt st) =? 0)%N then 0 else 1))%nat.

Lemma lenN_enc_frags_pos fs : fs <> [] -> 0 < lenN (enc_frags fs).
Proof.
  destruct fs as [|f fs]; [congruence|]. intros _.
  rewrite enc_frags_cons, lenN_app, lenN_enc_frag, FHS_val. lia.
Qed.

(* fuel, byte limit and transport budget suffice to write everything that is pending *)
Definition ample (c : scfg) (fuel : nat) (mb tot bud : N) (st : sstate) : Prop :=
  (pending st <= fuel)%nat /\ tot + N.of_nat fuel * sc_mtu c < mb /\ N.of_nat fuel <= bud.

(* the output loop: what it writes, the invariant, and that it leaves nothing behind when it is not cut short *)
Lemma out_loop_spec c id0 all : forall fuel mb tot bud em st pkts st',
  FHS < sc_mtu c ->
  sinv c id0 all em st ->
  out_loop fuel c mb tot bud st = (pkts, st') ->
  exists fss, pkts = map enc_frags fss /\ sinv c id0 all (em ++ concat fss) st'
              /\ Forall (fun p => lenN p <= sc_mtu c) pkts
              /\ (ample c fuel mb tot bud st -> s_q st' = [] /\ s_pkt st' = []).
Proof.
  induction fuel as [|fuel IH]; intros mb tot bud em st pkts st' Hmtu Hinv; cbn [out_loop];
    pose proof Hinv as [(pend & Hpkt & Hch) Hsz];
    assert (Hcur : cursor_ok (s_off st) (s_q st)) by (eapply chain_cursor; [exact Hch|now left]).
  - intros E. injection E as <- <-. exists []. cbn [map concat]. rewrite app_nil_r.
    split; [reflexivity|]. split; [exact Hinv|]. split; [constructor|]. intros (Hpend & _). unfold pending in Hpend.
    destruct (lenN (s_pkt st) =? 0) eqn:Hz; [|lia]. apply N.eqb_eq, lenN_0_nil in Hz. split; [|exact Hz].
    destruct (s_q st) as [|m q] eqn:Eq; [reflexivity|].
    pose proof (cursor_le _ _ _ Hcur) as Hoff. rewrite work_cons in Hpend by exact Hoff. lia.
  - destruct (tot <? mb) eqn:Htot.
    2:{ intros E. injection E as <- <-. exists []. cbn [map concat]. rewrite app_nil_r.
        split; [reflexivity|]. split; [exact Hinv|]. split; [constructor|].
        intros (_ & Hmb & _). apply N.ltb_ge in Htot. lia. }
    destruct (fill c (lenN (s_pkt st)) (s_id st) (s_off st) (s_q st)) as [fs [[id off] q]] eqn:Ef.
    destruct (fill_spec c _ _ _ _ _ _ _ _ Hmtu Hcur Hsz Ef) as [Hch2 Hsz2].
    pose proof (chain_work _ _ _ _ _ _ _ _ Hch2 Hcur) as Hwork.
    pose proof (fill_nonempty c (lenN (s_pkt st)) (s_id st) (s_off st) (s_q st)) as Hprog.
    rewrite Ef in Hprog. cbn [fst] in Hprog.
    assert (Hch3 : chain c id0 0 all (em ++ (pend ++ fs)) id off q).
    { rewrite app_assoc. eapply chain_app; eassumption. }
    assert (Hpkt3 : s_pkt st ++ enc_frags fs = enc_frags (pend ++ fs)).
    { now rewrite enc_frags_app, Hpkt. }
    assert (Hsz3 : lenN (s_pkt st ++ enc_frags fs) <= sc_mtu c) by (rewrite lenN_app; lia).
    (* when nothing is written the buffer keeps what it holds *)
    assert (Hheld : sinv c id0 all em (mkS id off q (s_pkt st ++ enc_frags fs))).
    { split; [|exact Hsz3]. exists (pend ++ fs). cbn [s_pkt s_id s_off s_q]. auto. }
    destruct (0 <? lenN (s_pkt st ++ enc_frags fs)) eqn:Hpos.
    2:{ intros E. injection E as <- <-. exists []. cbn [map concat s_q s_pkt]. rewrite app_nil_r.
        split; [reflexivity|]. split; [exact Hheld|]. split; [constructor|]. intros _.
        apply N.ltb_ge in Hpos. assert (Hz : s_pkt st ++ enc_frags fs = []) by (apply lenN_0_nil; lia).
        split; [|exact Hz]. apply app_eq_nil in Hz as [Hz1 Hz2].
        destruct (s_q st) as [|m0 q0] eqn:Eq; [cbn [fill] in Ef; now injection Ef as <- <- <- <-|].
        exfalso. rewrite Hz1 in Hprog. change (lenN (@nil byte)) with 0 in Hprog.
        specialize (Hprog ltac:(discriminate) ltac:(lia)).
        apply lenN_enc_frags_pos in Hprog. rewrite Hz2 in Hprog. cbn in Hprog. lia. }
    destruct (bud =? 0) eqn:Hbud.
    { intros E. injection E as <- <-. exists []. cbn [map concat]. rewrite app_nil_r.
      split; [reflexivity|]. split; [exact Hheld|]. split; [constructor|].
      intros (_ & _ & Hb). apply N.eqb_eq in Hbud. lia. }
    destruct (out_loop fuel c mb (tot + lenN (s_pkt st ++ enc_frags fs)) (bud - 1) (mkS id off q [])) as [ps st1] eqn:El.
    intros E. injection E as <- <-.
    assert (Hinv1 : sinv c id0 all (em ++ (pend ++ fs)) (mkS id off q [])).
    { split; [|cbn [s_pkt]; rewrite lenN_nil; lia]. exists []. cbn [s_pkt s_id s_off s_q]. rewrite app_nil_r. auto. }
    destruct (IH _ _ _ _ _ _ _ Hmtu Hinv1 El) as (fss & -> & Hinv2 & Hall & Hdr).
    exists ((pend ++ fs) :: fss). cbn [map concat]. rewrite Hpkt3.
    split; [reflexivity|]. split; [now rewrite app_assoc|].
    split; [constructor; [now rewrite <- Hpkt3|exact Hall]|].
    intros (Hpend & Hmb & Hb). apply Hdr. split; [|lia].
    (* the measure went down: a packet that was empty has taken a fragment *)
    unfold pending in *. cbn [s_off s_q s_pkt]. change (lenN (@nil byte) =? 0) with true. cbv iota.
    destruct (lenN (s_pkt st) =? 0) eqn:Hz; [|lia]. apply N.eqb_eq in Hz.
    destruct (s_q st) as [|m0 q0] eqn:Eq.
    + cbn [fill] in Ef. injection Ef as <- <- <- <-. apply lenN_0_nil in Hz. rewrite Hz in Hpos. discriminate.
    + specialize (Hprog ltac:(discriminate) ltac:(lia)). destruct fs; [congruence|cbn [length] in Hwork; lia].
Qed.

Lemma srun_spec c id0 : forall ops all em st st' pkts,
  FHS < sc_mtu c -> no_setid ops ->
  sinv c id0 all em st ->
  srun c st ops = (st', pkts) ->
  exists fss, pkts = map enc_frags fss /\ sinv c id0 (all ++ added ops) (em ++ concat fss) st'
              /\ Forall (fun p => lenN p <= sc_mtu c) pkts.
Proof.
  induction ops as [|o ops IH]; intros all em st st' pkts Hmtu Hns Hinv; cbn [srun].
  - intros E. injection E as <- <-. exists []. cbn. rewrite !app_nil_r. auto.
  - destruct o as [m|mb bud|id]; cbn [no_setid] in Hns; [| |tauto]; cbn [sstep added].
    + destruct (srun c (mkS (s_id st) (s_off st) (s_q st ++ [m]) (s_pkt st)) ops) as [st2 p2] eqn:E2.
      intros E. injection E as <- <-. cbn [app].
      assert (Hinv1 : sinv c id0 (all ++ [m]) em (mkS (s_id st) (s_off st) (s_q st ++ [m]) (s_pkt st))).
      { destruct Hinv as [(pend & Hpkt & Hch) Hsz]. split; [|exact Hsz].
        exists pend. cbn [s_pkt s_id s_off s_q]. split; [exact Hpkt|]. now apply chain_snoc. }
      destruct (IH _ _ _ _ _ Hmtu Hns Hinv1 E2) as (fss & -> & Hinv2 & Hall).
      exists fss. rewrite <- app_assoc in Hinv2. cbn [app] in Hinv2. auto.
    + destruct (out_loop (out_fuel st) c mb 0 bud st) as [ps st1] eqn:E1.
      destruct (srun c st1 ops) as [st2 p2] eqn:E2.
      intros E. injection E as <- <-.
      destruct (out_loop_spec c id0 all _ _ _ _ _ _ _ _ Hmtu Hinv E1) as (fss1 & -> & Hinv1 & Hall1 & _).
      destruct (IH _ _ _ _ _ Hmtu Hns Hinv1 E2) as (fss2 & -> & Hinv2 & Hall2).
      exists (fss1 ++ fss2). rewrite map_app, concat_app, app_assoc.
      split; [reflexivity|]. split; [exact Hinv2|]. apply Forall_app. auto.
Qed.
