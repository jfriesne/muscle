(* C03 -- WebSocket pair whose slave gateways are MessageIOGateways with the DEFAULT encoding: the
   slave premise of WsProofs is discharged from FrameProofs/FrameDefault, giving laws whose only
   hypotheses are the Message domain and "masking keys are four bytes".  Also the finding about the
   client's masking-key byte order as a refuted lemma. *)
From Coq Require Import List NArith ZArith Bool Lia ZifyBool.
From Muscle Require Import Gen.Consts Gw.GwBase Gw.GwLemmas Gw.FrameModel Gw.FrameProofs Gw.FrameDefault
  Gw.WsModel Gw.WsProofs Gw.TransportProofs.
Import ListNotations.
Local Open Scope N_scope.

Section WsDefault.
  Variable client : bool.          (* true: the sender is the client (masked frames), the receiver the server *)
  Variable max_in : N.             (* the receiving slave's incoming size limit *)
  Variable keys0 : list bytes.     (* the masking keys the client will draw, in order *)

  Definition wsd_sflat (m : bytes) : bytes := snd (d_flat tt m).
  Definition wsd_sfeed := d_feed max_in.
  Definition wsd_wfm (m : bytes) : Prop := d_wfb max_in m /\ f_hs + blen m <= ws_max_payload.
  Definition wsd_sinv (s : frecv unit) : Prop := s = idle unit tt.

  Lemma wsd_slave_ok sl m : wsd_sinv sl -> wsd_wfm m ->
    wsd_sflat m <> [] /\ blen (wsd_sflat m) <= ws_max_payload /\
    exists sl', wsd_sfeed sl (wsd_sflat m) = (sl', [m]) /\ wsd_sinv sl'.
  Proof.
    intros -> [Hw Hsz]. unfold wsd_sflat, d_flat. cbn [snd]. split; [discriminate|]. split.
    - rewrite !blen_app, !blen_le32. rewrite f_hs_is_8 in Hsz. lia.
    - destruct (f_feed_frame bytes unit unit d_flat d_unflat d_body_size max_in d_flat_len (fun _ _ => True) (d_wfb max_in)
                  (d_codec_sync max_in) tt tt m I Hw) as ([] & Hf & _).
      exists (idle unit tt). split; [exact Hf|reflexivity].
  Qed.

  Definition wsd_sys0 := ws_sys0 bytes (frecv unit) keys0 (idle unit tt).
  Definition wsd_rem := ws_rem bytes wsd_sflat client.

  Hypothesis keys_ok : Forall (fun k => length k = 4%nat) keys0.

  Definition wsd_sender := ws_sender bytes wsd_sflat client keys0 wsd_wfm.
  Definition wsd_decoder := ws_decoder bytes (frecv unit) wsd_sflat wsd_sfeed client keys0 wsd_wfm wsd_sinv (idle unit tt)
                              eq_refl wsd_slave_ok keys_ok.
End WsDefault.

(* ---- the finding: before the fix the client put the masking key on the wire byte-reversed
   (WriteInt32 through a BigEndianDataFlattener on a little-endian host) while masking the payload
   with the un-reversed bytes.  A frame built that way is un-masked by the (RFC-conformant) server
   to something other than the payload unless the key is a palindrome; here: key 1,2,3,4 and payload
   10,20,30,40,50 arrive as 15,21,31,45,55. *)
Definition ws_frame_old (key : bytes) (op : N) (data : bytes) : bytes :=
  [WS_FIN + op] ++ [128 + blen data] ++ rev key ++ ws_xor key 0 data.

Lemma ws_mask_order_refuted :
  let key := [1; 2; 3; 4] in let data := [10; 20; 30; 40; 50] in
  let echo (s : unit) (d : bytes) := (s, [d]) in
  snd (wr_feed bytes unit echo false (wr_init tt) (ws_frame_old key WS_BINARY data)) = [[15; 21; 31; 45; 55]] /\
  snd (wr_feed bytes unit echo false (wr_init tt) (ws_frame true key WS_BINARY data)) = [data].
Proof. vm_compute. auto. Qed.
