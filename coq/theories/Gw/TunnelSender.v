(* C12 -- proofs about the PacketTunnelIOGateway model: what the sender puts on the wire.

   [chain c id off q fs id' off' q']: starting with the output cursor at (message id, offset, queue),
   the fragments fs are exactly the next slices, in order and without gaps, and leave the cursor at
   (id', off', q').  Every run of the sender writes packets that are encodings of consecutive pieces
   of one such chain over all the Messages it was given (TunnelDrain.srun_spec). *)
From Coq Require Import List NArith Lia.
From Coq Require Import Strings.Byte.
From Muscle Require Import Common.LE Gw.Tunnel Gw.TunnelProofs Gw.TunnelSound.
Import ListNotations.
Local Open Scope N_scope.

Definition frag_of (c : scfg) (id : N) (m : msg) (off n : N) : frag :=
  mkFrag (sc_magic c) (sc_sex c) id off (lenN m) (takeN n (dropN off m)).

Inductive chain (c : scfg) : N -> N -> list msg -> list frag -> N -> N -> list msg -> Prop :=
| ch_nil id off q : chain c id off q [] id off q
| ch_part id off m q n fs id' off' q' :
    0 < n -> off + n < lenN m ->
    chain c id (off + n) (m :: q) fs id' off' q' ->
    chain c id off (m :: q) (frag_of c id m off n :: fs) id' off' q'
| ch_fin id off m q n fs id' off' q' :
    off + n = lenN m ->
    chain c (u32 (id + 1)) 0 q fs id' off' q' ->
    chain c id off (m :: q) (frag_of c id m off n :: fs) id' off' q'.

Lemma chain_app c id off q fs1 id1 off1 q1 fs2 id2 off2 q2 :
  chain c id off q fs1 id1 off1 q1 -> chain c id1 off1 q1 fs2 id2 off2 q2 ->
  chain c id off q (fs1 ++ fs2) id2 off2 q2.
Proof.
  intros H1 H2. induction H1; cbn [app].
  - exact H2.
  - eapply ch_part; eauto.
  - eapply ch_fin; eauto.
Qed.

Lemma chain_snoc c id off q fs id' off' q' m :
  chain c id off q fs id' off' q' -> chain c id off (q ++ [m]) fs id' off' (q' ++ [m]).
Proof.
  intros H. induction H; cbn [app] in *.
  - constructor.
  - eapply ch_part; eauto.
  - eapply ch_fin; eauto.
Qed.

Lemma chain_done c id off q fs id' off' q' :
  chain c id off q fs id' off' q' -> exists done, q = done ++ q'.
Proof.
  intros H. induction H.
  - now exists [].
  - exact IHchain.
  - destruct IHchain as [d ->]. now exists (m :: d).
Qed.

(* the offset cursor points inside the head of the queue (or is 0) *)
Definition cursor_ok (off : N) (q : list msg) : Prop :=
  off = 0 \/ exists m q0, q = m :: q0 /\ off < lenN m.

Lemma cursor_ok_snoc off q m : cursor_ok off q -> cursor_ok off (q ++ [m]).
Proof. intros [H|(m0 & q0 & -> & H)]; [now left|]. right. exists m0, (q0 ++ [m]). auto. Qed.

Lemma chain_cursor c id off q fs id' off' q' :
  chain c id off q fs id' off' q' -> cursor_ok off q -> cursor_ok off' q'.
Proof.
  intros H. induction H; intros Hc.
  - exact Hc.
  - apply IHchain. right. exists m, q. split; [reflexivity|lia].
  - apply IHchain. now left.
Qed.

(* ------------------------------------------------------------------ fill *)

Ltac nil_len := change (enc_frags []) with (@nil byte); rewrite ?lenN_nil; lia.

Lemma lenN_slice (m : msg) off n : off + n <= lenN m -> lenN (takeN n (dropN off m)) = n.
Proof. intros H. rewrite lenN_takeN, lenN_dropN. lia. Qed.

Lemma fill_spec c : forall q ps id off fs id' off' q',
  FHS < sc_mtu c -> cursor_ok off q -> ps <= sc_mtu c ->
  fill c ps id off q = (fs, (id', off', q')) ->
  chain c id off q fs id' off' q' /\ ps + lenN (enc_frags fs) <= sc_mtu c.
Proof.
  induction q as [|m q IH]; intros ps id off fs id' off' q' Hmtu Hcur Hps; cbn [fill].
  - intros E. injection E as <- <- <- <-. split; [|nil_len].
    destruct Hcur as [->|(m0 & q0 & E & _)]; [constructor|discriminate].
  - destruct (ps + FHS <? sc_mtu c) eqn:Hroom.
    2:{ intros E. injection E as <- <- <- <-. split; [constructor|nil_len]. }
    apply N.ltb_lt in Hroom.
    assert (Hoff : off <= lenN m).
    { destruct Hcur as [->|(m0 & q0 & E & H)]; [lia|]. injection E as <- <-. lia. }
    set (n := N.min (sc_mtu c - (ps + FHS)) (lenN m - off)).
    destruct (off + n =? lenN m) eqn:Hfin.
    + apply N.eqb_eq in Hfin.
      destruct (fill c (ps + FHS + n) (u32 (id + 1)) 0 q) as [fs1 [[id1 off1] q1]] eqn:E1.
      intros E. injection E as <- <- <- <-.
      destruct (IH (ps + FHS + n) (u32 (id + 1)) 0 fs1 id1 off1 q1 Hmtu (or_introl eq_refl) ltac:(lia) E1) as [Hch Hsz].
      split.
      * eapply ch_fin; eassumption.
      * rewrite enc_frags_cons, lenN_app, lenN_enc_frag. cbn [f_data frag_of].
        rewrite lenN_slice by lia. lia.
    + apply N.eqb_neq in Hfin.
      intros E. injection E as <- <- <- <-.
      split.
      * eapply ch_part; [lia|lia|constructor].
      * rewrite enc_frags_cons, lenN_app, lenN_enc_frag. cbn [f_data frag_of].
        rewrite lenN_slice by lia. nil_len.
Qed.

(* when only part of the head buffer fits, the packet is full: the C++ loop condition fails next time round *)
Lemma fill_partial_fills_packet c ps off (m : msg) :
  ps + FHS < sc_mtu c -> off <= lenN m ->
  let n := N.min (sc_mtu c - (ps + FHS)) (lenN m - off) in
  off + n <> lenN m -> ps + FHS + n = sc_mtu c.
Proof. intros H1 H2 n H3. subst n. lia. Qed.

(* ------------------------------------------------------------------ ids, histories *)

Fixpoint assign (id : N) (q : list msg) : hist :=
  match q with
  | [] => []
  | m :: q' => (id, m) :: assign (u32 (id + 1)) q'
  end.

Lemma u32_add_l a b : u32 (u32 a + b) = u32 (a + b).
Proof. unfold u32. apply N.add_mod_idemp_l. discriminate. Qed.

Lemma assign_in q : forall id k m,
  id < two32 ->
  In (k, m) (assign id q) -> exists i, (i < length q)%nat /\ k = u32 (id + N.of_nat i).
Proof.
  induction q as [|m0 q IH]; intros id k m Hid; cbn [assign In]; [tauto|].
  intros [E|H].
  - injection E as <- <-. exists 0%nat. split; [cbn; lia|].
    replace (id + N.of_nat 0) with id by lia. symmetry. now apply u32_small.
  - destruct (IH _ _ _ (u32_lt _) H) as (i & Hi & Hk). exists (S i). split; [cbn [length]; lia|].
    rewrite Hk, u32_add_l. f_equal. lia.
Qed.

Lemma u32_shift_inj id k : id < two32 -> 0 < k -> k < two32 -> u32 (id + k) <> id.
Proof.
  intros Hid Hk0 Hk E. unfold u32 in E.
  pose proof (N.div_mod (id + k) two32 ltac:(discriminate)) as D. rewrite E in D.
  assert (Hq : (id + k) / two32 = 0 \/ (id + k) / two32 = 1 \/ 2 <= (id + k) / two32) by lia.
  unfold two32 in *. lia.
Qed.

Lemma assign_not_in id q :
  id < two32 -> N.of_nat (length q) < two32 -> ~ In id (map fst (assign (u32 (id + 1)) q)).
Proof.
  intros Hid Hlen Hin. apply in_map_iff in Hin as ([k m'] & Ek & Hin). cbn [fst] in Ek. subst k.
  destruct (assign_in _ _ _ _ (u32_lt _) Hin) as (i & Hi & Hk).
  rewrite u32_add_l in Hk. symmetry in Hk. revert Hk.
  replace (id + 1 + N.of_nat i) with (id + (1 + N.of_nat i)) by lia.
  apply u32_shift_inj; [assumption|lia|lia].
Qed.

Lemma assign_nodup q : forall id,
  id < two32 -> N.of_nat (length q) <= two32 -> NoDup (map fst (assign id q)).
Proof.
  induction q as [|m q IH]; intros id Hid Hlen; cbn [assign map fst]; [constructor|].
  cbn [length] in Hlen. constructor.
  - apply assign_not_in; [assumption|lia].
  - apply IH; [apply u32_lt|lia].
Qed.

Lemma assign_app id q1 q2 : exists id2, assign id (q1 ++ q2) = assign id q1 ++ assign id2 q2.
Proof.
  revert id. induction q1 as [|m q1 IH]; intros id; cbn [app assign].
  - now exists id.
  - destruct (IH (u32 (id + 1))) as [id2 E]. exists id2. now rewrite E.
Qed.

Lemma assign_snd id q : map snd (assign id q) = q.
Proof. revert id. induction q as [|m q IH]; intros id; cbn [assign map snd]; [reflexivity|]. now rewrite IH. Qed.

Lemma frag_of_valid c id (m : msg) off n h :
  off + n <= lenN m -> In (id, m) h -> valid h (frag_of c id m off n).
Proof.
  intros Hle Hin. exists m. cbn [frag_of f_id f_total f_off f_data]. rewrite lenN_slice by exact Hle. auto.
Qed.

(* every fragment of a chain is a slice of the Message that carries its id *)
Lemma chain_valid c id off q fs id' off' q' :
  chain c id off q fs id' off' q' -> Forall (valid (assign id q)) fs.
Proof.
  intros H. induction H; constructor; cbn [assign].
  - apply frag_of_valid; [lia|now left].
  - exact IHchain.
  - apply frag_of_valid; [lia|now left].
  - eapply Forall_impl; [|exact IHchain].
    intros f (m0 & Hin & Hrest). exists m0. split; [now right|exact Hrest].
Qed.

Definition scfg_ok (c : scfg) : Prop := sc_magic c < two32 /\ sc_sex c < two32 /\ FHS < sc_mtu c.

Lemma frag_of_wire_ok c id (m : msg) off n :
  scfg_ok c -> id < two32 -> lenN m < two32 -> off + n <= lenN m -> wire_ok (frag_of c id m off n).
Proof.
  intros (Hm & Hs & _) Hid Hlen Hle. unfold wire_ok. cbn [frag_of f_magic f_sex f_id f_off f_total f_data].
  rewrite lenN_slice by exact Hle. repeat split; try assumption; lia.
Qed.

Lemma chain_wire_ok c id off q fs id' off' q' :
  chain c id off q fs id' off' q' ->
  scfg_ok c -> id < two32 -> Forall (fun m => lenN m < two32) q ->
  Forall wire_ok fs /\ id' < two32.
Proof.
  intros H Hc. induction H; intros Hid Hq; [split; [constructor|exact Hid]| |];
    inversion Hq as [|? ? Hm0 Hq0]; subst.
  - destruct (IHchain Hid Hq) as [Hw Hid']. split; [|exact Hid'].
    constructor; [apply frag_of_wire_ok; (assumption || lia)|exact Hw].
  - destruct (IHchain (u32_lt _) Hq0) as [Hw Hid']. split; [|exact Hid'].
    constructor; [apply frag_of_wire_ok; (assumption || lia)|exact Hw].
Qed.

Lemma chain_compat c id off q fs id' off' q' :
  chain c id off q fs id' off' q' ->
  Forall (fun f => f_magic f = sc_magic c /\ f_sex f = sc_sex c) fs.
Proof. intros H. induction H; constructor; auto. Qed.

(* ------------------------------------------------------------------ the run of a sender *)

Fixpoint added (ops : list sop) : list msg :=
  match ops with
  | [] => []
  | SAdd m :: ops' => m :: added ops'
  | _ :: ops' => added ops'
  end.

Fixpoint no_setid (ops : list sop) : Prop :=
  match ops with
  | [] => True
  | SSetId _ :: _ => False
  | _ :: ops' => no_setid ops'
  end.

(* ghost view of a sender state: [all] = every Message added so far, [em] = every fragment written so far *)
Definition sinv (c : scfg) (id0 : N) (all : list msg) (em : list frag) (st : sstate) : Prop :=
  (exists pend, s_pkt st = enc_frags pend
                /\ chain c id0 0 all (em ++ pend) (s_id st) (s_off st) (s_q st))
  /\ lenN (s_pkt st) <= sc_mtu c.

Lemma sinv_init c id0 : sinv c id0 [] [] (s_init id0).
Proof. split; [exists []; split; [reflexivity|cbn; apply ch_nil]|cbn [s_init s_pkt]; rewrite lenN_nil; lia]. Qed.
