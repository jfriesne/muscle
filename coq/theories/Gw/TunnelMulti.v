(* C12 -- proofs about the PacketTunnelIOGateway model: several sources.

   Non-interference: as long as no more than MAX_NUM_RECEIVE_STATES+1 source addresses are in play
   (so that the LRU never evicts a state), what the receiver delivers under address a is exactly what
   it would deliver had only a's datagrams arrived -- for ARBITRARY datagrams from everybody.
   Together with tunnel_complete this is the completeness clause for several senders whose
   in-order streams are interleaved arbitrarily. *)
From Coq Require Import List NArith Lia.
From Coq Require Import Strings.Byte.
From Muscle Require Import Common.LE Gw.Tunnel Gw.TunnelProofs Gw.TunnelSender Gw.TunnelComplete Gw.TunnelTheorems.
Import ListNotations.
Local Open Scope N_scope.

Lemma recv_packet_tag rc t a p : forall d, In d (snd (recv_packet rc t a p)) -> fst d = a.
Proof.
  destruct (recv_packet_cases rc a p) as [(E & _) | E]; rewrite E.
  - intros d [<-|[]]. reflexivity.
  - destruct (recv_frags t a (frags_of rc p)). intros d Hd. apply in_map_iff in Hd as (m & <- & _). reflexivity.
Qed.

Definition from (a : addr) {X} (d : addr * X) : bool := fst d =? a.

Section Bounded.

Variable L : list addr.                     (* every source address that ever appears *)
Hypothesis L_small : N.of_nat (length L) <= MAX_STATES + 1.

Definition bounded (t : table) : Prop := tbl_wf t /\ forall b, tbl_find b t <> None -> In b L.

(* a new source finds room: nothing is evicted *)
Lemma bounded_miss t a : bounded t -> In a L -> tbl_find a t = None -> tbl_evict t = t.
Proof.
  intros [Hwf Hincl] Ha Hnone. apply tbl_evict_small. apply tbl_find_none_iff in Hnone.
  assert (Hnd : NoDup (a :: map fst t)) by (constructor; assumption).
  assert (Hin : incl (a :: map fst t) L).
  { intros b [<-|Hb]; [exact Ha|]. apply Hincl. rewrite tbl_find_none_iff. tauto. }
  pose proof (NoDup_incl_length Hnd Hin) as Hlen. cbn [length] in Hlen. rewrite map_length in Hlen.
  unfold lenN. lia.
Qed.

Lemma recv_frags_bounded fs : forall t a,
  bounded t -> In a L ->
  bounded (fst (recv_frags t a fs)) /\ forall b, a <> b -> tbl_find b (fst (recv_frags t a fs)) = tbl_find b t.
Proof.
  induction fs as [|f fs IH]; intros t a Hb Ha; cbn [recv_frags]; [cbn [fst]; auto|].
  assert (Hk : forall b, a <> b -> tbl_find b (fst (recv_frag t a f)) = tbl_find b t).
  { intros b Hab. rewrite recv_frag_other_eq by exact Hab. unfold tbl_without.
    destruct (tbl_find a t) eqn:Hf; [now apply tbl_find_remove_other|now rewrite (bounded_miss t a)]. }
  assert (Hb1 : bounded (fst (recv_frag t a f))).
  { split.
    - pose proof (recv_frag_own t a f (proj1 Hb)) as H. destruct (recv_frag t a f), (rs_step (tbl_find a t) f). apply H.
    - intros b Hfb. destruct (N.eq_dec a b) as [<-|Hab]; [exact Ha|]. rewrite Hk in Hfb by exact Hab. now apply Hb. }
  destruct (recv_frag t a f) as [t1 o1]. cbn [fst] in Hb1, Hk.
  destruct (IH t1 a Hb1 Ha) as [Hb2 Hk2]. destruct (recv_frags t1 a fs) as [t2 o2]. cbn [fst] in *.
  split; [exact Hb2|]. intros b Hab. now rewrite Hk2, Hk.
Qed.

Lemma recv_packet_bounded rc t a p :
  bounded t -> In a L ->
  bounded (fst (recv_packet rc t a p)) /\ forall b, a <> b -> tbl_find b (fst (recv_packet rc t a p)) = tbl_find b t.
Proof.
  intros Hb Ha. destruct (recv_packet_cases rc a p) as [(E & _) | E]; rewrite E; [cbn [fst]; auto|].
  pose proof (recv_frags_bounded (frags_of rc p) t a Hb Ha) as H.
  destruct (recv_frags t a (frags_of rc p)). exact H.
Qed.

(* a's own datagram: the joint table and the solo table agree on a's entry before, hence after, and on the output *)
Lemma recv_packet_same rc t ts a p :
  tbl_wf t -> tbl_wf ts -> tbl_find a t = tbl_find a ts ->
  tbl_find a (fst (recv_packet rc t a p)) = tbl_find a (fst (recv_packet rc ts a p))
  /\ snd (recv_packet rc t a p) = snd (recv_packet rc ts a p)
  /\ tbl_wf (fst (recv_packet rc ts a p)).
Proof.
  intros Hwf Hwfs Heq.
  destruct (recv_packet_cases rc a p) as [(E & _) | E]; rewrite !E; [cbn [fst snd]; auto|].
  pose proof (recv_frags_own t a (frags_of rc p) Hwf) as H1. pose proof (recv_frags_own ts a (frags_of rc p) Hwfs) as H2.
  destruct (recv_frags t a (frags_of rc p)) as [t1 o1]. destruct (recv_frags ts a (frags_of rc p)) as [t2 o2].
  rewrite Heq in H1. destruct (rs_steps (tbl_find a ts) (frags_of rc p)) as [r p1].
  destruct H1 as (_ & F1 & O1). destruct H2 as (W2 & F2 & O2). cbn [fst snd]. subst. auto.
Qed.

Lemma recv_all_project rc a net : forall t ts,
  In a L -> (forall b p, In (b, p) net -> In b L) ->
  bounded t -> tbl_wf ts -> tbl_find a t = tbl_find a ts ->
  filter (from a) (snd (recv_all rc t net)) = snd (recv_all rc ts (filter (from a) net)).
Proof.
  induction net as [|[b p] net IH]; intros t ts Ha Hnet Hb Hwfs Heq; cbn [recv_all filter].
  - reflexivity.
  - assert (HbL : In b L) by (apply (Hnet b p); now left).
    assert (Hnet' : forall b' p', In (b', p') net -> In b' L) by (intros b' p' H; apply (Hnet b' p'); now right).
    destruct (recv_packet_bounded rc t b p Hb HbL) as [Hb1 Hk].
    pose proof (recv_packet_tag rc t b p) as Htag.
    unfold from at 2. cbn [fst].
    destruct (N.eqb_spec b a) as [->|Hba].
    + cbn [recv_all].
      destruct (recv_packet_same rc t ts a p (proj1 Hb) Hwfs Heq) as (F & O & W).
      destruct (recv_packet rc t a p) as [t1 o1]. destruct (recv_packet rc ts a p) as [ts1 os1]. cbn [fst snd] in *.
      specialize (IH t1 ts1 Ha Hnet' Hb1 W F).
      destruct (recv_all rc t1 net) as [t2 o2]. destruct (recv_all rc ts1 (filter (from a) net)) as [ts2 os2].
      cbn [snd] in *. rewrite filter_app, IH. f_equal. subst os1. now apply filter_tag_all.
    + destruct (recv_packet rc t b p) as [t1 o1]. cbn [fst snd] in *.
      specialize (IH t1 ts Ha Hnet' Hb1 Hwfs ltac:(rewrite Hk; assumption)).
      destruct (recv_all rc t1 net) as [t2 o2]. cbn [snd] in *.
      rewrite filter_app, IH. now rewrite (filter_tag_none a b o1 Hba Htag : filter (from a) o1 = []).
Qed.

End Bounded.

(* ------------------------------------------------------------------ theorems *)

(* Sources do not interfere: at most MAX_NUM_RECEIVE_STATES+1 source addresses, arbitrary datagrams. *)
Theorem tunnel_noninterference :
  forall rc (L : list addr) net a,
    N.of_nat (length L) <= MAX_STATES + 1 ->
    (forall b p, In (b, p) net -> In b L) -> In a L ->
    filter (from a) (snd (recv_all rc [] net)) = snd (recv_all rc [] (filter (from a) net)).
Proof.
  intros rc L net a Hlen Hnet Ha.
  apply (recv_all_project L Hlen rc a net [] [] Ha Hnet).
  - split; [constructor|]. intros b H. now contradiction H.
  - constructor.
  - reflexivity.
Qed.

(* THE PROPERTY, second clause, several senders: each sender's packets arrive once and in order, the
   streams interleaved arbitrarily with each other and with any other traffic, at most
   MAX_NUM_RECEIVE_STATES+1 source addresses in all: every sender's completely written Messages that
   fit are delivered under its address exactly once, in order. *)
Theorem tunnel_complete_multi :
  forall rc (L : list addr) net c a id0 ops st pkts,
    N.of_nat (length L) <= MAX_STATES + 1 ->
    (forall b p, In (b, p) net -> In b L) -> In a L ->
    scfg_ok c -> compat c rc -> id0 < two32 -> no_setid ops ->
    N.of_nat (length (added ops)) <= two32 ->
    Forall (fun m => lenN m < two32) (added ops) ->
    srun c (s_init id0) ops = (st, pkts) -> s_pkt st = [] ->
    filter (from a) net = map (pair a) pkts ->
    exists done,
      added ops = done ++ s_q st
      /\ filter (from a) (snd (recv_all rc [] net)) = map (pair a) (filter (fits rc) done).
Proof.
  intros rc L net c a id0 ops st pkts Hlen Hnet Ha Hc Hcompat Hid Hns Hcnt Hsz Hrun Hpk Hproj.
  rewrite (tunnel_noninterference rc L net a Hlen Hnet Ha), Hproj.
  apply (tunnel_complete rc c a id0 ops st pkts [] Hc Hcompat Hid Hns Hcnt Hsz Hrun Hpk); [constructor|reflexivity].
Qed.

(* non-vacuity: two senders interleaved, plus a stranger *)
Example multi_nontrivial :
  let p := sr_packets ex_run in
  let net := [(5, nth 0 p []); (9, [x00; x01]); (6, nth 0 p []); (5, nth 1 p []); (6, nth 1 p []); (5, nth 2 p [])] in
  (forall b q, In (b, q) net -> In b [5; 6; 9])
  /\ filter (from 5) (snd (recv_all ex_rc [] net)) = [(5, repeat x41 9); (5, [])]
  /\ filter (from 6) (snd (recv_all ex_rc [] net)) = [(6, repeat x41 9)].
Proof.
  cbv zeta. split.
  - intros b q H. apply (in_map fst) in H. cbn [fst map] in H. cbn [In] in *. intuition.
  - vm_compute. split; reflexivity.
Qed.
