(* C03 -- proofs about the WebSocket framing model: masking is an involution, the receive loop
   refines the byte-at-a-time machine, the split lemma, every frame the sender builds (any payload
   length class, masked or not, any key) is parsed back to its payload, and the sender and decoder
   laws of a client->server or server->client pair with slave gateways (instantiated with
   MessageIOGateway slaves in WsDefault.v). *)
From Coq Require Import List NArith ZArith Bool Lia ZifyBool.
From Muscle Require Import Gen.Consts Gw.GwBase Gw.GwLemmas Gw.WsModel Gw.TransportProofs.
Import ListNotations.
Local Open Scope N_scope.

(* ---- masking *)
Lemma ws_xor_length key : forall d i, length (ws_xor key i d) = length d.
Proof. induction d as [|x t IH]; intros i; cbn; auto. Qed.

Lemma blen_ws_xor key i d : blen (ws_xor key i d) = blen d.
Proof. unfold blen. now rewrite ws_xor_length. Qed.

Lemma ws_xor_involutive key : forall d i, ws_xor key i (ws_xor key i d) = d.
Proof.
  induction d as [|x t IH]; intros i; cbn [ws_xor]; auto.
  rewrite IH. f_equal. rewrite N.lxor_assoc, N.lxor_nilpotent. apply N.lxor_0_r.
Qed.

Section WsProofs.
  Variable Msg : Type.
  Variable SR : Type.
  Variable sflat : Msg -> bytes.
  Variable sfeed : SR -> bytes -> SR * list Msg.

  Notation wsend := (wsend Msg).
  Notation wrecv := (wrecv SR).
  Notation wr_byte := (wr_byte Msg SR sfeed).
  Notation wr_feed := (wr_feed Msg SR sfeed).
  Notation wr_in := (wr_in Msg SR sfeed).
  Notation wr_do_input := (wr_do_input Msg SR sfeed).
  Notation wr_header_done := (wr_header_done Msg SR sfeed).
  Notation wr_payload_done := (wr_payload_done Msg SR sfeed).

  (* ==================================================================== the split lemma *)
  (* [rclient]: the RECEIVER is the client (the model's [client] argument of wr_byte, wr_feed, wr_in); the Section
     variable [client] further down is the sender's role.  wr_feed carries it through its recursion, so it is the fold
     of the byte step only up to this lemma *)
  Lemma wr_feed_bfeed rclient bs : forall st, wr_feed rclient st bs = bfeed (wr_byte rclient) st bs.
  Proof. induction bs as [|b t IH]; intros st; cbn; [reflexivity|]. destruct (wr_byte rclient st b). now rewrite IH. Qed.

  Lemma wr_feed_app rclient a st b :
    wr_feed rclient st (a ++ b) =
    let '(st1, o1) := wr_feed rclient st a in let '(st2, o2) := wr_feed rclient st1 b in (st2, o1 ++ o2).
  Proof.
    rewrite !wr_feed_bfeed, bfeed_app. destruct (bfeed _ st a) as [st1 o1]. now rewrite wr_feed_bfeed.
  Qed.

  Lemma wr_byte_err rclient st b : wr_err st = true -> wr_byte rclient st b = (st, []).
  Proof. intros He. unfold WsModel.wr_byte. now rewrite He. Qed.

  (* ==================================================================== chunks and the byte machine *)
  Definition with_hdr (st : wrecv) (h : bytes) : wrecv :=
    mkWR h (wr_hsize st) (wr_pay st) (wr_first st) (wr_mask st) (wr_op st) (wr_closed st) (wr_err st) (wr_slave st).
  Definition with_pay (st : wrecv) (sz : N) (got : bytes) : wrecv :=
    mkWR (wr_hdr st) (wr_hsize st) (Some (sz, got)) (wr_first st) (wr_mask st) (wr_op st) (wr_closed st) (wr_err st) (wr_slave st).

  (* one byte into the header / into the payload *)
  Lemma wr_byte_hdr rclient st g b :
    wr_err st = false -> blen g < wr_hsize st ->
    wr_byte rclient (with_hdr st g) b =
    (if blen g + 1 =? wr_hsize st then wr_header_done rclient (with_hdr st (g ++ [b]))
     else (with_hdr st (g ++ [b]), [])).
  Proof.
    intros He Hl. unfold WsModel.wr_byte, with_hdr. cbn [wr_err wr_hdr wr_hsize]. rewrite He.
    assert (E1 : (blen g =? wr_hsize st) = false) by lia. rewrite E1. reflexivity.
  Qed.

  Lemma wr_byte_pay rclient st sz g b :
    wr_err st = false -> blen (wr_hdr st) = wr_hsize st ->
    wr_byte rclient (with_pay st sz g) b =
    (if blen g + 1 =? sz then wr_payload_done rclient (with_pay st sz (g ++ [b]))
     else (with_pay st sz (g ++ [b]), [])).
  Proof.
    intros He Hh. unfold WsModel.wr_byte, with_pay. cbn [wr_err wr_hdr wr_hsize wr_pay]. rewrite He.
    assert (E1 : (blen (wr_hdr st) =? wr_hsize st) = true) by lia. rewrite E1. reflexivity.
  Qed.

  Lemma with_hdr_id st : with_hdr st (wr_hdr st) = st.
  Proof. destruct st; reflexivity. Qed.
  Lemma with_pay_id st sz got : wr_pay st = Some (sz, got) -> with_pay st sz got = st.
  Proof. destruct st; cbn; now intros ->. Qed.

  (* header bytes that do not complete the header *)
  Lemma feed_hdr_partial rclient x st :
    wr_err st = false -> blen (wr_hdr st) + blen x < wr_hsize st ->
    wr_feed rclient st x = (with_hdr st (wr_hdr st ++ x), []).
  Proof.
    intros He Hl. rewrite <- (with_hdr_id st) at 1.
    rewrite wr_feed_bfeed. apply (bfeed_below (wr_byte rclient) (with_hdr st) 0 (wr_hsize st)); try lia.
    intros g b _ Hg. rewrite wr_byte_hdr by (auto; lia). assert (E : (blen g + 1 =? wr_hsize st) = false) by lia. now rewrite E.
  Qed.

  (* header bytes that complete it *)
  Lemma feed_hdr_exact rclient x st :
    wr_err st = false -> x <> [] -> blen (wr_hdr st) + blen x = wr_hsize st ->
    wr_feed rclient st x = wr_header_done rclient (with_hdr st (wr_hdr st ++ x)).
  Proof.
    intros He Hx Hl. rewrite <- (with_hdr_id st) at 1.
    rewrite wr_feed_bfeed.
    apply (bfeed_reach (wr_byte rclient) (with_hdr st) (fun g => wr_header_done rclient (with_hdr st g)) 0 (wr_hsize st));
      auto; try lia; intros g b _ Hg; rewrite wr_byte_hdr by (auto; lia).
    - assert (E : (blen g + 1 =? wr_hsize st) = false) by lia. now rewrite E.
    - assert (E : (blen g + 1 =? wr_hsize st) = true) by lia. now rewrite E.
  Qed.

  (* payload bytes that do not complete the payload *)
  Lemma feed_pay_partial rclient x st sz got :
    wr_err st = false -> blen (wr_hdr st) = wr_hsize st -> wr_pay st = Some (sz, got) ->
    blen got + blen x < sz ->
    wr_feed rclient st x = (with_pay st sz (got ++ x), []).
  Proof.
    intros He Hh Hp Hl. rewrite <- (with_pay_id st sz got Hp) at 1.
    rewrite wr_feed_bfeed. apply (bfeed_below (wr_byte rclient) (with_pay st sz) 0 sz); try lia.
    intros g b _ Hg. rewrite wr_byte_pay by auto. assert (E : (blen g + 1 =? sz) = false) by lia. now rewrite E.
  Qed.

  (* payload bytes that complete it *)
  Lemma feed_pay_exact rclient x st sz got :
    wr_err st = false -> blen (wr_hdr st) = wr_hsize st -> wr_pay st = Some (sz, got) ->
    x <> [] -> blen got + blen x = sz ->
    wr_feed rclient st x = wr_payload_done rclient (with_pay st sz (got ++ x)).
  Proof.
    intros He Hh Hp Hx Hl. rewrite <- (with_pay_id st sz got Hp) at 1.
    rewrite wr_feed_bfeed.
    apply (bfeed_reach (wr_byte rclient) (with_pay st sz) (fun g => wr_payload_done rclient (with_pay st sz g)) 0 sz);
      auto; try lia; intros g b _ Hg; rewrite wr_byte_pay by auto.
    - assert (E : (blen g + 1 =? sz) = false) by lia. now rewrite E.
    - assert (E : (blen g + 1 =? sz) = true) by lia. now rewrite E.
  Qed.

  (* ==================================================================== the receive loop *)
  (* states of the loop: while a header is being read, a payload buffer that exists (earlier fragments of an
     unfinished message) is full; when the header is complete a payload is being received and is not yet full *)
  Definition pay_full (st : wrecv) : Prop :=
    match wr_pay st with Some (sz, got) => blen got = sz | None => True end.
  Definition wr_wf (st : wrecv) : Prop :=
    wr_err st = false ->
    (blen (wr_hdr st) < wr_hsize st /\ pay_full st) \/
    (blen (wr_hdr st) = wr_hsize st /\ exists sz got, wr_pay st = Some (sz, got) /\ blen got < sz).

  Lemma wr_execute_props st st' o :
    wr_execute Msg SR sfeed st = (st', o) ->
    wr_pay st' = None /\ wr_err st' = wr_err st /\ wr_hdr st' = wr_hdr st /\ wr_hsize st' = wr_hsize st.
  Proof.
    unfold wr_execute. destruct (wr_closed st).
    - intros H; inversion H; subst; cbn; auto.
    - destruct (wr_op st =? WS_BINARY).
      + destruct (sfeed (wr_slave st) _) as [s' o']. intros H; inversion H; subst; cbn; auto.
      + destruct (wr_op st =? WS_CLOSE); intros H; inversion H; subst; cbn; auto.
  Qed.

  Lemma wr_reset_wf st : pay_full st -> wr_wf (wr_reset_hdr SR st).
  Proof.
    intros Hp _. left. unfold wr_reset_hdr, pay_full in *. cbn [wr_pay wr_hdr wr_hsize]. split; [|exact Hp].
    change (blen []) with 0. lia.
  Qed.

  Lemma pay_full_none st : wr_pay st = None -> pay_full st.
  Proof. unfold pay_full. now intros ->. Qed.

  Lemma wr_init_payload_wf st size off st' o :
    blen (wr_hdr st) = wr_hsize st -> pay_full st ->
    wr_init_payload Msg SR sfeed st size off = (st', o) -> wr_wf st'.
  Proof.
    intros Hh Hfull. unfold wr_init_payload.
    destruct (size =? 0) eqn:Ez.
    - set (st1 := match wr_pay st with Some _ => st | None => _ end).
      assert (Hf1 : pay_full st1).
      { subst st1. unfold pay_full in *. destruct (wr_pay st) as [[sz got]|] eqn:Epay; [now rewrite Epay|exact I]. }
      destruct (WS_FIN <=? nth 0 (wr_hdr st) 0).
      + destruct (wr_execute Msg SR sfeed st1) as [st2 o2] eqn:Ee. intros H; inversion H; subst.
        apply wr_reset_wf. apply pay_full_none. apply wr_execute_props in Ee. tauto.
      + intros H; inversion H; subst. apply wr_reset_wf. exact Hf1.
    - unfold pay_full in Hfull.
      destruct (wr_pay st) as [[sz0 got0]|] eqn:Epay; intros H; injection H as <- _; intros _; right; cbn [wr_pay wr_hdr wr_hsize].
      + split; auto. exists (sz0 + size), got0. split; auto. lia.
      + split; auto. exists size, []. split; auto. change (blen []) with 0. lia.
  Qed.

  Lemma wr_header_done_wf rclient st st' o :
    blen (wr_hdr st) = wr_hsize st -> pay_full st ->
    wr_header_done rclient st = (st', o) -> wr_wf st'.
  Proof.
    intros Hh Hfull. unfold WsModel.wr_header_done.
    assert (Herr : forall (s : wrecv), wr_wf (wr_set_err SR s)) by (intros s E; cbn in E; discriminate).
    destruct (wr_hsize st =? 2) eqn:E2.
    - destruct (negb _); [intros H; inversion H; subst; apply Herr|].
      destruct (if rclient then _ else _); [intros H; inversion H; subst; apply Herr|].
      set (hs' := 2 + _ + _).
      destruct (hs' =? 2) eqn:Ehs.
      + apply wr_init_payload_wf; auto.
      + intros H; inversion H; subst. intros _. left. unfold wr_set_hsize, pay_full in *. cbn [wr_pay wr_hdr wr_hsize].
        split; [|exact Hfull].
        assert (2 < hs').
        { subst hs'. destruct (_ =? 126); [lia|]. destruct (_ =? 127); [lia|]. destruct (128 <=? _); [lia|]. cbn in Ehs. discriminate. }
        lia.
    - destruct (wr_hsize st =? 6); [apply wr_init_payload_wf; auto|].
      destruct ((wr_hsize st =? 4) || (wr_hsize st =? 8)); [apply wr_init_payload_wf; auto|].
      destruct ((wr_hsize st =? 10) || (wr_hsize st =? 14)).
      + destruct (9223372036854775808 <=? _); [intros H; inversion H; subst; apply Herr|].
        destruct (ws_max_payload <? _); [intros H; inversion H; subst; apply Herr|].
        apply wr_init_payload_wf; auto.
      + intros H; inversion H; subst; apply Herr.
  Qed.

  Lemma wr_payload_done_wf rclient st sz got st' o :
    wr_pay st = Some (sz, got) -> blen got = sz ->
    wr_payload_done rclient st = (st', o) -> wr_wf st'.
  Proof.
    intros Epay Hfull. unfold WsModel.wr_payload_done. rewrite Epay.
    set (st1 := if rclient then st else _).
    assert (Hp1 : pay_full st1).
    { subst st1. unfold pay_full. destruct rclient; [rewrite Epay; lia|]. cbn [wr_pay].
      rewrite blen_app, blen_ws_xor, <- blen_app, take_drop. lia. }
    destruct (wr_closed st1 || (WS_FIN <=? nth 0 (wr_hdr st) 0)).
    - destruct (wr_execute Msg SR sfeed st1) as [st2 o2] eqn:Ee. intros H; inversion H; subst.
      apply wr_reset_wf. apply pay_full_none. apply wr_execute_props in Ee. tauto.
    - intros H; inversion H; subst. apply wr_reset_wf. exact Hp1.
  Qed.

  Definition in_spec rclient (st : wrecv) (maxb : N) (scr : list N) (pipe : bytes) (outs : list Msg)
             (st' : wrecv) (outs' : list Msg) (pipe' : bytes) : Prop :=
    wr_wf st' /\ exists x o, pipe = x ++ pipe' /\ outs' = outs ++ o /\ wr_feed rclient st x = (st', o) /\
      (wr_err st = false -> 1 <= maxb -> 1 <= io_k scr -> pipe <> [] -> x <> []).

  Lemma wr_in_turn rclient scr st maxb pipe outs st' outs' pipe' :
    (forall st2 maxb2 pipe2 outs2, wr_wf st2 ->
        match scr with [] => (st2, outs2, pipe2) | _ :: scr' => wr_in rclient scr' st2 maxb2 pipe2 outs2 end = (st', outs', pipe') ->
        wr_wf st' /\ exists x o, pipe2 = x ++ pipe' /\ outs' = outs2 ++ o /\ wr_feed rclient st2 x = (st', o)) ->
    wr_wf st -> wr_in rclient scr st maxb pipe outs = (st', outs', pipe') ->
    in_spec rclient st maxb scr pipe outs st' outs' pipe'.
  Proof.
    intros Hrec Hwf H.
    assert (Hunf : wr_in rclient scr st maxb pipe outs =
      if (maxb =? 0) || wr_err st then (st, outs, pipe) else
      if blen (wr_hdr st) =? wr_hsize st then
        match wr_pay st with
        | None => (wr_set_err SR st, outs, pipe)
        | Some (sz, got) =>
            let '(x, pipe', _) := io_read (N.min maxb (sz - blen got)) scr pipe in
            if 0 <? blen x then
              let st1 := mkWR (wr_hdr st) (wr_hsize st) (Some (sz, got ++ x)) (wr_first st) (wr_mask st) (wr_op st)
                              (wr_closed st) (wr_err st) (wr_slave st) in
              let '(st2, o) := if blen got + blen x =? sz then wr_payload_done rclient st1 else (st1, []) in
              match scr with [] => (st2, outs ++ o, pipe') | _ :: scr' => wr_in rclient scr' st2 (maxb - blen x) pipe' (outs ++ o) end
            else (st, outs, pipe')
        end
      else
        let '(x, pipe', _) := io_read (N.min maxb (wr_hsize st - blen (wr_hdr st))) scr pipe in
        if 0 <? blen x then
          let st1 := mkWR (wr_hdr st ++ x) (wr_hsize st) (wr_pay st) (wr_first st) (wr_mask st) (wr_op st)
                          (wr_closed st) (wr_err st) (wr_slave st) in
          let '(st2, o) := if blen (wr_hdr st) + blen x =? wr_hsize st then wr_header_done rclient st1 else (st1, []) in
          match scr with [] => (st2, outs ++ o, pipe') | _ :: scr' => wr_in rclient scr' st2 (maxb - blen x) pipe' (outs ++ o) end
        else (st, outs, pipe')) by (destruct scr; reflexivity).
    rewrite Hunf in H. clear Hunf.
    destruct ((maxb =? 0) || wr_err st) eqn:Estop.
    { inversion H; subst. split; auto. exists [], []. rewrite app_nil_r. repeat split; auto.
      intros He Hm. rewrite He in Estop. lia. }
    apply orb_false_iff in Estop. destruct Estop as [Emax Eerr].
    assert (Hpp : pipe <> [] -> 0 < blen pipe) by apply blen_pos.
    (* finishing a turn that read x and reached (st2, o) with wr_feed st x = (st2, o) *)
    assert (Hfin : forall x p1 st2 o maxb2, pipe = x ++ p1 -> x <> [] -> wr_wf st2 -> wr_feed rclient st x = (st2, o) ->
               match scr with [] => (st2, outs ++ o, p1) | _ :: scr' => wr_in rclient scr' st2 maxb2 p1 (outs ++ o) end = (st', outs', pipe') ->
               in_spec rclient st maxb scr pipe outs st' outs' pipe').
    { intros x p1 st2 o maxb2 Hp Hxne Hwf2 Hf Hk.
      apply Hrec in Hk; auto. destruct Hk as (Hwf' & y & o2 & Hp2 & Ho2 & Hf2).
      split; auto. exists (x ++ y), (o ++ o2). repeat split.
      - rewrite Hp, Hp2. now rewrite app_assoc.
      - rewrite Ho2. now rewrite app_assoc.
      - rewrite wr_feed_app, Hf, Hf2. reflexivity.
      - intros _ _ _ _ E. apply app_eq_nil in E. destruct E; contradiction. }
    (* a Read that asked for [want] > 0 bytes and got none ends the call *)
    assert (Hnone : forall x p1 want, pipe = x ++ p1 -> blen x = 0 ->
               blen x = N.min (N.min maxb want) (N.min (io_k scr) (blen pipe)) -> 0 < want ->
               (st, outs, p1) = (st', outs', pipe') -> in_spec rclient st maxb scr pipe outs st' outs' pipe').
    { intros x p1 want Hp Hx0 Hb Hpos Hk. inversion Hk; subst. assert (x = []) by (apply blen_0; exact Hx0). subst x.
      split; auto. exists [], []. rewrite app_nil_r. repeat split; auto.
      intros _ H1 H2 H3. specialize (Hpp H3). change (blen []) with 0 in Hb. lia. }
    destruct (Hwf Eerr) as [[Hlt Hfull]|[Heq (sz & got & Epay & Hgot)]].
    - (* header phase *)
      assert (Ehdr : (blen (wr_hdr st) =? wr_hsize st) = false) by lia. rewrite Ehdr in *.
      destruct (io_read (N.min maxb (wr_hsize st - blen (wr_hdr st))) scr pipe) as [[x p1] s1] eqn:Er.
      apply io_read_spec in Er. destruct Er as (Hp & Hb & _).
      destruct (0 <? blen x) eqn:Ex; [|apply (Hnone x p1 (wr_hsize st - blen (wr_hdr st))); auto; lia].
      fold (with_hdr st (wr_hdr st ++ x)) in H. cbv zeta in H.
      assert (Hxne : x <> []) by (intros ->; cbn in Ex; discriminate).
      destruct (blen (wr_hdr st) + blen x =? wr_hsize st) eqn:Efull.
      + destruct (wr_header_done rclient (with_hdr st (wr_hdr st ++ x))) as [st2 o] eqn:Ehd.
        apply (Hfin x p1 st2 o (maxb - blen x) Hp Hxne); [| |exact H].
        * eapply wr_header_done_wf; [| |exact Ehd].
          -- unfold with_hdr. cbn [wr_hdr wr_hsize]. rewrite blen_app. lia.
          -- exact Hfull.
        * rewrite (feed_hdr_exact rclient x st Eerr Hxne ltac:(lia)). exact Ehd.
      + apply (Hfin x p1 (with_hdr st (wr_hdr st ++ x)) [] (maxb - blen x) Hp Hxne); [| |exact H].
        * intros _. left. unfold with_hdr. cbn [wr_hdr wr_hsize]. rewrite blen_app. split; [lia|exact Hfull].
        * apply feed_hdr_partial; auto. lia.
    - (* payload phase *)
      assert (Ehdr : (blen (wr_hdr st) =? wr_hsize st) = true) by lia. rewrite Ehdr, Epay in *.
      destruct (io_read (N.min maxb (sz - blen got)) scr pipe) as [[x p1] s1] eqn:Er.
      apply io_read_spec in Er. destruct Er as (Hp & Hb & _).
      destruct (0 <? blen x) eqn:Ex; [|apply (Hnone x p1 (sz - blen got)); auto; lia].
      cbv zeta in H.
      set (st1 := mkWR _ _ (Some (sz, got ++ x)) _ _ _ _ _ _) in H.
      assert (Est1 : st1 = with_pay st sz (got ++ x)) by reflexivity. clearbody st1. subst st1.
      assert (Hxne : x <> []) by (intros ->; cbn in Ex; discriminate).
      destruct (blen got + blen x =? sz) eqn:Efull.
      + destruct (wr_payload_done rclient (with_pay st sz (got ++ x))) as [st2 o] eqn:Epd.
        apply (Hfin x p1 st2 o (maxb - blen x) Hp Hxne); [| |exact H].
        * eapply wr_payload_done_wf; [| |exact Epd]; [reflexivity|rewrite blen_app; lia].
        * rewrite (feed_pay_exact rclient x st sz got Eerr Heq Epay Hxne ltac:(lia)). exact Epd.
      + apply (Hfin x p1 (with_pay st sz (got ++ x)) [] (maxb - blen x) Hp Hxne); [| |exact H].
        * intros _. right. unfold with_pay. cbn [wr_pay wr_hdr wr_hsize]. split; auto.
          exists sz, (got ++ x). split; auto. rewrite blen_app. lia.
        * apply feed_pay_partial; auto. lia.
  Qed.

  Lemma wr_in_spec rclient scr : forall st maxb pipe outs st' outs' pipe',
    wr_wf st -> wr_in rclient scr st maxb pipe outs = (st', outs', pipe') ->
    in_spec rclient st maxb scr pipe outs st' outs' pipe'.
  Proof.
    induction scr as [|k scr IH]; intros st maxb pipe outs st' outs' pipe' Hwf H.
    - apply wr_in_turn; auto. intros st2 maxb2 pipe2 outs2 Hwf2 E. inversion E; subst.
      split; auto. exists [], []. rewrite !app_nil_r. auto.
    - apply wr_in_turn; auto. intros st2 maxb2 pipe2 outs2 Hwf2 E.
      destruct (IH _ _ _ _ _ _ _ Hwf2 E) as (Hwf' & x & o & Hp & Ho & Hf & _). split; auto. exists x, o. auto.
  Qed.

  Lemma wr_do_input_spec rclient st maxb scr pipe st' o pipe' :
    wr_wf st -> wr_do_input rclient st maxb scr pipe = (st', o, pipe') ->
    wr_wf st' /\ exists x, pipe = x ++ pipe' /\ wr_feed rclient st x = (st', o) /\
      (wr_err st = false -> 1 <= maxb -> 1 <= io_k scr -> pipe <> [] -> x <> []).
  Proof.
    unfold WsModel.wr_do_input. intros Hwf H.
    destruct (wr_in_spec rclient scr _ _ _ _ _ _ _ Hwf H) as (Hwf' & x & o' & Hp & Ho & Hf & Hx).
    cbn in Ho. subst o'. eauto.
  Qed.

  (* ==================================================================== sender *)
  Variable client : bool.          (* the SENDER is the client (masks) or the server *)

  (* frames of the queued Messages, drawing keys from the key list (client only) *)
  Fixpoint ws_wire_from (keys : list bytes) (ms : list Msg) : bytes :=
    match ms with
    | [] => []
    | m :: t =>
        let key := match keys with k :: _ => k | [] => [0; 0; 0; 0] end in
        let keys' := if client then match keys with _ :: r => r | [] => [] end else keys in
        ws_frame client key WS_BINARY (sflat m) ++ ws_wire_from keys' t
    end.
  Fixpoint ws_keys_after (keys : list bytes) (ms : list Msg) : list bytes :=
    match ms with
    | [] => keys
    | _ :: t => ws_keys_after (if client then match keys with _ :: r => r | [] => [] end else keys) t
    end.

  Lemma ws_wire_from_app keys a b :
    ws_wire_from keys (a ++ b) = ws_wire_from keys a ++ ws_wire_from (ws_keys_after keys a) b.
  Proof. revert keys. induction a as [|m a IH]; intros keys; cbn; auto. now rewrite IH, app_assoc. Qed.

  Lemma ws_keys_after_app keys a b : ws_keys_after keys (a ++ b) = ws_keys_after (ws_keys_after keys a) b.
  Proof. revert keys. induction a as [|m a IH]; intros keys; cbn; auto. Qed.

  Variable keys0 : list bytes.

  Definition ws_rem (st : wsend) : bytes := drop (ws_off st) (ws_buf st) ++ ws_wire_from (ws_keys st) (ws_q st).
  Definition ws_SI (st : wsend) (ms : list Msg) : Prop :=
    ws_off st <= blen (ws_buf st) /\
    exists dn, ms = dn ++ ws_q st /\ ws_keys st = ws_keys_after keys0 dn.

  Lemma ws_has_bytes_rem (st : wsend) : ws_has_bytes st = false -> ws_rem st = [].
  Proof.
    unfold ws_has_bytes, ws_rem. intros H. apply orb_false_iff in H. destruct H as [H1 H2].
    destruct (ws_q st); [|discriminate]. rewrite drop_all by lia. reflexivity.
  Qed.

  Lemma ws_frame_nonempty c key op d : ws_frame c key op d <> [].
  Proof. unfold ws_frame. discriminate. Qed.

  (* what a run of the send loop achieves; with fuel beyond the queued Messages, a call that is allowed to
     move a byte does, while bytes remain *)
  Definition ws_post ms (fuel : nat) (st : wsend) (acc : bytes) (maxb : N) (scr : list N) (st' : wsend) (acc' : bytes) : Prop :=
    ws_SI st' ms /\ exists x, acc' = acc ++ x /\ ws_rem st = x ++ ws_rem st' /\
      ((length (ws_q st) < fuel)%nat -> ws_rem st <> [] -> 1 <= maxb -> 1 <= io_k scr -> x <> []).

  Lemma ws_out_spec ms fuel : forall st maxb scr acc st' acc',
    ws_SI st ms -> ws_out Msg sflat client fuel st maxb scr acc = (st', acc') -> ws_post ms fuel st acc maxb scr st' acc'.
  Proof.
    induction fuel as [|fuel IH]; intros st maxb scr acc st' acc' HSI H; cbn [ws_out] in H.
    { inversion H; subst. split; auto. exists []. rewrite app_nil_r. repeat split; auto. lia. }
    assert (Hstop : (ws_rem st <> [] -> 1 <= maxb -> 1 <= io_k scr -> False) -> ws_post ms (S fuel) st acc maxb scr st acc).
    { intros Hno. split; [exact HSI|]. exists []. rewrite app_nil_r. repeat split; auto. }
    destruct (maxb =? 0) eqn:E0; [inversion H; subst; apply Hstop; lia|].
    destruct HSI as [Hoff (dn & Hms & Hk)].
    destruct (ws_off st <? blen (ws_buf st)) eqn:Elt.
    - destruct (io_write (take (N.min (blen (ws_buf st) - ws_off st) maxb) (drop (ws_off st) (ws_buf st))) scr) as [x scr'] eqn:Ew.
      apply io_write_take in Ew. destruct Ew as (Hd & Hbx & _). rewrite blen_drop in Hbx.
      destruct (0 <? blen x) eqn:Ex; [|inversion H; subst; apply Hstop; lia].
      apply IH in H; [|split; [cbn [ws_off ws_buf]; lia|exists dn; auto]].
      destruct H as (HSI' & y & Hacc & Hrem & _). split; auto. exists (x ++ y).
      split; [now rewrite Hacc, app_assoc|]. split.
      + rewrite <- app_assoc, <- Hrem.
        unfold ws_rem. cbn [ws_off ws_buf ws_keys ws_q]. rewrite Hd at 1. rewrite drop_drop, <- app_assoc. reflexivity.
      + intros _ _ _ _ E. apply app_eq_nil in E. destruct E as [-> _]. discriminate.
    - assert (Hdrop : drop (ws_off st) (ws_buf st) = []) by (apply drop_all; lia).
      destruct (ws_q st) as [|m q] eqn:Eq.
      + inversion H; subst. apply Hstop. unfold ws_rem. rewrite Eq, Hdrop. intros Hr; now destruct Hr.
      + apply IH in H.
        * destruct H as (HSI' & y & Hacc & Hrem & Hpr). split; auto. exists y. split; auto.
          unfold ws_rem in *. cbn [ws_off ws_buf ws_keys ws_q] in *. rewrite Eq, Hdrop. cbn [ws_wire_from app].
          rewrite drop_0 in Hrem. split; [exact Hrem|]. intros Hf _. apply Hpr; [cbn in Hf; lia|].
          intros E. apply app_eq_nil in E. destruct E as [E _]. exact (ws_frame_nonempty _ _ _ _ E).
        * split; [cbn [ws_off ws_buf]; lia|]. exists (dn ++ [m]). cbn [ws_q ws_keys]. split.
          -- rewrite Hms, <- app_assoc. reflexivity.
          -- rewrite ws_keys_after_app, <- Hk. reflexivity.
  Qed.

  Lemma ws_do_output_spec ms st maxb scr st' x :
    ws_SI st ms -> ws_do_output Msg sflat client st maxb scr = (st', x) ->
    ws_SI st' ms /\ ws_rem st = x ++ ws_rem st' /\ (ws_rem st <> [] -> 1 <= maxb -> 1 <= io_k scr -> x <> []).
  Proof.
    unfold ws_do_output. intros HSI H.
    destruct (ws_out_spec ms _ _ _ _ _ _ _ HSI H) as (HSI' & y & Hy & Hrem & Hpr). cbn in Hy. subst y.
    split; [exact HSI'|]. split; [exact Hrem|]. apply Hpr. lia.
  Qed.

  (* ==================================================================== parsing a frame the sender built *)
  Definition ws_idle (mask : bytes) (sl : SR) : wrecv := mkWR [] 2 None 0 mask 0 false false sl.

  Lemma rdbe_be16 n : n < 65536 -> rdbe (be16 n) 0 = n.
  Proof.
    intros H. unfold be16. cbn [rdbe].
    pose proof (N.div_mod n 256 ltac:(lia)) as Hd.
    assert (n / 256 < 256) by (apply N.div_lt_upper_bound; lia).
    rewrite (N.mod_small (n / 256) 256) by lia. lia.
  Qed.

  Lemma rdbe_be32 n acc : n < two32 -> rdbe (be32 n) acc = acc * two32 + n.
  Proof.
    intros H. unfold be32. cbn [rdbe].
    assert (E : n mod 256 + 256 * ((n / 256) mod 256) + 65536 * ((n / 65536) mod 256) + 16777216 * ((n / 16777216) mod 256) = n).
    { pose proof (rd32_le32 n [] H) as Hr. unfold le32, rd32, u32 in Hr. cbn [app] in Hr.
      rewrite N.mod_small in Hr; [exact Hr|].
      assert (Hm : forall a, a mod 256 < 256) by (intros; apply N.mod_lt; lia).
      pose proof (Hm n). pose proof (Hm (n / 256)). pose proof (Hm (n / 65536)). pose proof (Hm (n / 16777216)).
      unfold two32. lia. }
    unfold two32 in *. lia.
  Qed.

  Lemma rdbe_be64 n : n < two32 -> rdbe (be64 n) 0 = n.
  Proof.
    intros H. unfold be64.
    assert (E1 : n / two32 = 0) by (apply N.div_small; exact H).
    assert (E2 : n mod two32 = n) by (apply N.mod_small; exact H).
    rewrite E1, E2.
    assert (rdbe (be32 0 ++ be32 n) 0 = rdbe (be32 n) (rdbe (be32 0) 0)).
    { generalize (be32 n) as t. generalize 0 as a. induction (be32 0) as [|x l IH]; intros a t; cbn [rdbe app]; auto. }
    rewrite H0. rewrite rdbe_be32 by exact H. rewrite (rdbe_be32 0 0) by (unfold two32; lia). lia.
  Qed.

  Lemma ws_parse_frame key data (sl sl' : SR) (outs : list Msg) m0 :
    data <> [] -> blen data <= ws_max_payload -> (client = true -> length key = 4%nat) ->
    sfeed sl data = (sl', outs) ->
    wr_feed (negb client) (ws_idle m0 sl) (ws_frame client key WS_BINARY data)
    = (ws_idle (if client then key else [0; 0; 0; 0]) sl', outs).
  Proof.
    intros Hne Hmax Hkey Hs.
    assert (Hn1 : 1 <= blen data) by (pose proof (blen_pos _ Hne); lia).
    assert (Hmp : ws_max_payload = 10485760) by reflexivity.
    set (n := blen data) in *.
    set (mb := if client then 128 else 0).
    unfold ws_frame. fold n. fold mb.
    change (WS_FIN + WS_BINARY) with 130.
    (* the length class *)
    set (code := if 65535 <? n then 127 else if 125 <? n then 126 else n).
    set (ext := if 65535 <? n then be64 n else if 125 <? n then be16 n else []).
    assert (Elen : (if 65535 <? n then [mb + 127] ++ be64 n else if 125 <? n then [mb + 126] ++ be16 n else [mb + n]) = [mb + code] ++ ext).
    { subst code ext. destruct (65535 <? n); [reflexivity|]. destruct (125 <? n); reflexivity. }
    rewrite Elen. clear Elen.
    assert (Hcode : code < 128) by (subst code; destruct (65535 <? n) eqn:E1; [lia|destruct (125 <? n) eqn:E2; lia]).
    assert (Hext : blen ext = if code =? 126 then 2 else if code =? 127 then 8 else 0).
    { subst code ext. destruct (65535 <? n) eqn:E1; [reflexivity|]. destruct (125 <? n) eqn:E2; [reflexivity|].
      assert ((n =? 126) = false) by lia. assert ((n =? 127) = false) by lia. rewrite H, H0. reflexivity. }
    (* first two header bytes *)
    assert (Hmbit : (128 <=? mb + code) = client) by (subst mb; destruct client; lia).
    assert (Hl7 : (mb + code) mod 128 = code).
    { subst mb. destruct client; [|rewrite N.add_0_l; apply N.mod_small; exact Hcode].
      rewrite N.add_mod by lia. rewrite N.mod_same by lia. rewrite N.add_0_l, N.mod_mod by lia. apply N.mod_small; exact Hcode. }
    set (hs' := 2 + (if code =? 126 then 2 else if code =? 127 then 8 else 0) + (if client then 4 else 0)).
    assert (Hstep1 : forall rest, wr_feed (negb client) (ws_idle m0 sl) (130 :: (mb + code) :: rest) =
               let '(st1, o1) := wr_header_done (negb client) (mkWR [130; mb + code] 2 None 0 m0 0 false false sl) in
               let '(st2, o2) := wr_feed (negb client) st1 rest in (st2, o1 ++ o2)).
    { intros rest. change (130 :: (mb + code) :: rest) with ([130; mb + code] ++ rest). rewrite wr_feed_app.
      rewrite (feed_hdr_exact (negb client) [130; mb + code] (ws_idle m0 sl) eq_refl ltac:(discriminate) eq_refl). reflexivity. }
    assert (Hhd2 : wr_header_done (negb client) (mkWR [130; mb + code] 2 None 0 m0 0 false false sl) =
                   if hs' =? 2 then (mkWR [130; mb + code] 2 (Some (n, [])) 0 [0; 0; 0; 0] 2 false false sl, [])
                   else (mkWR [130; mb + code] hs' None 0 m0 0 false false sl, [])).
    { unfold WsModel.wr_header_done. cbn [wr_hdr wr_hsize nth]. change (2 =? 2) with true. cbv iota.
      change ((130 / 16) mod 8 =? 0) with true. cbn [negb]. rewrite Hmbit, Hl7.
      assert (Erole : (if negb client then client else negb client) = false) by (destruct client; reflexivity).
      rewrite Erole. fold hs'.
      destruct (hs' =? 2) eqn:Ehs; [|reflexivity].
      (* no extension, no mask: the payload size is the 7-bit code itself *)
      assert (Hc : code = n).
      { subst hs' code. destruct (65535 <? n); [cbn in Ehs; destruct client; discriminate|].
        destruct (125 <? n); [cbn in Ehs; destruct client; discriminate|reflexivity]. }
      rewrite Hc. unfold wr_init_payload. cbn [wr_hdr wr_pay nth].
      assert (E0 : (n =? 0) = false) by lia. rewrite E0. reflexivity. }
    cbn [app]. rewrite Hstep1, Hhd2. clear Hstep1 Hhd2.
    (* the payload phase, from a state whose header is complete *)
    assert (Hpay : forall hdr hsz mask pdata, blen hdr = hsz -> nth 0 hdr 0 = 130 ->
               (if client then ws_xor mask 0 pdata = data else pdata = data) -> blen pdata = n ->
               wr_feed (negb client) (mkWR hdr hsz (Some (n, [])) 0 mask 2 false false sl) pdata = (ws_idle mask sl', outs)).
    { intros hdr hsz mask pdata Hh H0 Hpd Hpl.
      assert (Hpne : pdata <> []) by (intros ->; change (blen []) with 0 in Hpl; lia).
      assert (Hsum : blen (@nil N) + blen pdata = n) by (change (blen []) with 0; lia).
      rewrite (feed_pay_exact (negb client) pdata (mkWR hdr hsz (Some (n, [])) 0 mask 2 false false sl) n [] eq_refl Hh eq_refl Hpne Hsum).
      unfold WsModel.wr_payload_done, with_pay. cbn [wr_pay wr_hdr wr_hsize wr_first wr_mask wr_op wr_closed wr_err wr_slave app].
      rewrite H0. change (WS_FIN <=? 130) with true.
      destruct client; cbn [negb].
      - cbn [wr_closed orb]. unfold wr_execute. cbn [wr_pay wr_closed wr_op wr_slave wr_hdr wr_hsize wr_mask wr_err].
        change (2 =? WS_BINARY) with true. cbv iota. cbn [take drop firstn skipn N.to_nat app].
        rewrite Hpd, Hs. reflexivity.
      - cbn [wr_closed orb]. unfold wr_execute. cbn [wr_pay wr_closed wr_op wr_slave wr_hdr wr_hsize wr_mask wr_err].
        change (2 =? WS_BINARY) with true. cbv iota. rewrite Hpd, Hs. reflexivity. }
    destruct (hs' =? 2) eqn:Ehs.
    - (* server -> client, short payload: straight to the payload *)
      assert (Hcl : client = false) by (subst hs'; destruct client; auto; destruct (code =? 126); [discriminate|destruct (code =? 127); discriminate]).
      assert (Hext0 : ext = []).
      { apply blen_0. rewrite Hext. subst hs'. rewrite Hcl in Ehs. destruct (code =? 126); [discriminate|]. destruct (code =? 127); [discriminate|reflexivity]. }
      rewrite Hext0, Hcl in *. cbn [app].
      rewrite (Hpay [130; mb + code] 2 [0; 0; 0; 0] data eq_refl eq_refl eq_refl eq_refl). reflexivity.
    - (* more header bytes: extended length and / or masking key *)
      set (hrest := ext ++ (if client then ws_key_wire key else [])).
      set (pdata := if client then ws_xor key 0 data else data).
      assert (Esplit : ext ++ (if client then ws_key_wire key ++ ws_xor key 0 data else data) = hrest ++ pdata).
      { subst hrest pdata. destruct client; [now rewrite <- app_assoc|now rewrite app_nil_r]. }
      rewrite Esplit. clear Esplit.
      assert (Hklen : client = true -> blen (ws_key_wire key) = 4) by (intros Hc; unfold blen, ws_key_wire; rewrite (Hkey Hc); reflexivity).
      assert (Hrl : 2 + blen hrest = hs').
      { subst hrest hs'. rewrite blen_app, Hext. destruct client; [rewrite (Hklen eq_refl)|change (blen []) with 0]; lia. }
      assert (Hrne : hrest <> []).
      { intros E. rewrite E in Hrl. change (blen []) with 0 in Hrl. lia. }
      rewrite wr_feed_app.
      rewrite (feed_hdr_exact (negb client) hrest (mkWR [130; mb + code] hs' None 0 m0 0 false false sl) eq_refl Hrne Hrl).
      unfold with_hdr. cbn [wr_hdr wr_hsize wr_pay wr_first wr_mask wr_op wr_closed wr_err wr_slave].
      (* the second header-complete step: payload size and mask *)
      set (fullh := [130; mb + code] ++ hrest).
      assert (Hf0 : nth 0 fullh 0 = 130) by reflexivity.
      assert (Hf1 : nth 1 fullh 0 = mb + code) by reflexivity.
      assert (Hfd : drop 2 fullh = hrest) by reflexivity.
      assert (Hfl : blen fullh = hs') by (subst fullh; rewrite blen_app; exact Hrl).
      clearbody fullh.
      assert (Hhd : wr_header_done (negb client) (mkWR fullh hs' None 0 m0 0 false false sl) =
                    (mkWR fullh hs' (Some (n, [])) 0 (if client then key else [0; 0; 0; 0]) 2 false false sl, [])).
      { unfold WsModel.wr_header_done. cbn [wr_hdr wr_hsize]. rewrite Hf0, Hf1, Ehs, Hmbit, Hl7.
        assert (Hinit : forall off, (client = true -> take 4 (drop off fullh) = key) ->
                   wr_init_payload Msg SR sfeed (mkWR fullh hs' None 0 m0 0 false false sl) n (if client then Some off else None)
                   = (mkWR fullh hs' (Some (n, [])) 0 (if client then key else [0; 0; 0; 0]) 2 false false sl, [])).
        { intros off Hoff. unfold wr_init_payload. cbn [wr_hdr wr_pay wr_hsize wr_first wr_mask wr_op wr_closed wr_err wr_slave].
          rewrite Hf0. assert (E0 : (n =? 0) = false) by lia. rewrite E0.
          destruct client; [rewrite (Hoff eq_refl)|]; reflexivity. }
        assert (Hkeyat : forall e, client = true -> hrest = e ++ ws_key_wire key -> take 4 (drop (2 + blen e) fullh) = key).
        { intros e Hc He. rewrite <- drop_drop, Hfd, He, drop_app_exact. pose proof (Hklen Hc) as Hk4.
          unfold ws_key_wire in *. apply take_all. lia. }
        (* which length class *)
        subst hs' hrest code ext.
        destruct (65535 <? n) eqn:E1.
        - (* 64-bit length *)
          change (127 =? 126) with false in *. change (127 =? 127) with true in *. cbv iota in *.
          assert (Hsz : rdbe (take 8 (drop 2 fullh)) 0 = n).
          { rewrite Hfd. change 8 with (blen (be64 n)). rewrite take_app_exact. apply rdbe_be64. unfold two32. lia. }
          assert (Ea : (9223372036854775808 <=? n) = false) by lia. assert (Eb : (ws_max_payload <? n) = false) by lia.
          destruct client; cbn [negb].
          + change (2 + 8 + 4 =? 2) with false. change (2 + 8 + 4 =? 6) with false.
            change ((2 + 8 + 4 =? 4) || (2 + 8 + 4 =? 8)) with false. change ((2 + 8 + 4 =? 10) || (2 + 8 + 4 =? 14)) with true. cbv iota.
            rewrite Hsz, Ea, Eb. unfold u32. rewrite N.mod_small by (unfold two32; lia).
            apply (Hinit 10). intros Hc. exact (Hkeyat (be64 n) Hc eq_refl).
          + change (2 + 8 + 0 =? 2) with false. change (2 + 8 + 0 =? 6) with false.
            change ((2 + 8 + 0 =? 4) || (2 + 8 + 0 =? 8)) with false. change ((2 + 8 + 0 =? 10) || (2 + 8 + 0 =? 14)) with true. cbv iota.
            rewrite Hsz, Ea, Eb. unfold u32. rewrite N.mod_small by (unfold two32; lia).
            apply (Hinit 0). discriminate.
        - destruct (125 <? n) eqn:E2.
          + (* 16-bit length *)
            change (126 =? 126) with true in *. cbv iota in *.
            assert (Hsz : rdbe (take 2 (drop 2 fullh)) 0 = n).
            { rewrite Hfd. change 2 with (blen (be16 n)). rewrite take_app_exact. apply rdbe_be16. lia. }
            destruct client; cbn [negb].
            * change (2 + 2 + 4 =? 2) with false. change (2 + 2 + 4 =? 6) with false.
              change ((2 + 2 + 4 =? 4) || (2 + 2 + 4 =? 8)) with true. cbv iota. rewrite Hsz.
              apply (Hinit 4). intros Hc. exact (Hkeyat (be16 n) Hc eq_refl).
            * change (2 + 2 + 0 =? 2) with false. change (2 + 2 + 0 =? 6) with false.
              change ((2 + 2 + 0 =? 4) || (2 + 2 + 0 =? 8)) with true. cbv iota. rewrite Hsz.
              apply (Hinit 0). discriminate.
          + (* 7-bit length with a mask (the unmasked 7-bit case has hs' = 2) *)
            assert (En126 : (n =? 126) = false) by lia. assert (En127 : (n =? 127) = false) by lia.
            rewrite En126, En127 in *. cbv iota in *.
            destruct client; cbn [negb]; [|cbn in Ehs; discriminate].
            change (2 + 0 + 4 =? 2) with false. change (2 + 0 + 4 =? 6) with true. cbv iota.
            apply (Hinit 2). intros Hc. exact (Hkeyat [] Hc eq_refl). }
      rewrite Hhd. clear Hhd.
      rewrite (Hpay fullh hs' (if client then key else [0; 0; 0; 0]) pdata).
      + reflexivity.
      + exact Hfl.
      + exact Hf0.
      + subst pdata. destruct client; [apply ws_xor_involutive|reflexivity].
      + subst pdata. destruct client; [apply blen_ws_xor|reflexivity].
  Qed.

  (* ==================================================================== end to end *)
  (* premises about the slave gateways: what the sender's slave writes for a Message of the domain is
     non-empty, within the 10 MB frame limit, and is turned back into exactly that Message by the
     receiver's slave, whose state stays in the invariant [sinv] (for MessageIOGateway slaves this is
     FrameProofs.f_feed_frame); the masking keys are four bytes long *)
  Variable wfm : Msg -> Prop.
  Variable sinv : SR -> Prop.
  Variable sl0 : SR.
  Hypothesis sinv0 : sinv sl0.
  Hypothesis slave_ok : forall sl m, sinv sl -> wfm m ->
    sflat m <> [] /\ blen (sflat m) <= ws_max_payload /\
    exists sl', sfeed sl (sflat m) = (sl', [m]) /\ sinv sl'.
  Hypothesis keys_ok : Forall (fun k => length k = 4%nat) keys0.

  Lemma keys_after_ok ms : forall keys, Forall (fun k => length k = 4%nat) keys ->
    Forall (fun k => length k = 4%nat) (ws_keys_after keys ms).
  Proof.
    induction ms as [|m t IH]; intros keys Hk; cbn; auto.
    apply IH. destruct client; auto. destruct keys; auto. inversion Hk; auto.
  Qed.

  Lemma ws_feed_wire ms : Forall wfm ms -> forall keys sl m0,
    Forall (fun k => length k = 4%nat) keys -> sinv sl ->
    exists m1 sl', wr_feed (negb client) (ws_idle m0 sl) (ws_wire_from keys ms) = (ws_idle m1 sl', ms) /\ sinv sl'.
  Proof.
    induction 1 as [|m t Hm _ IH]; intros keys sl m0 Hk Hs; cbn [ws_wire_from]; cbv zeta.
    - exists m0, sl. auto.
    - destruct (slave_ok sl m Hs Hm) as (Hne & Hmax & sl1 & Hf & Hs1).
      set (key := match keys with k :: _ => k | [] => [0; 0; 0; 0] end) in *.
      assert (Hkl : client = true -> length key = 4%nat).
      { intros _. subst key. destruct keys; [reflexivity|]. inversion Hk; auto. }
      set (keys' := if client then match keys with _ :: r => r | [] => [] end else keys) in *.
      assert (Hk' : Forall (fun k => length k = 4%nat) keys').
      { subst keys'. destruct client; auto. destruct keys; auto. inversion Hk; auto. }
      destruct (IH keys' sl1 (if client then key else [0; 0; 0; 0]) Hk' Hs1) as (m1 & sl2 & Hf2 & Hs2).
      exists m1, sl2. split; auto.
      change (wr_feed (negb client) (ws_idle m0 sl) (ws_frame client key WS_BINARY (sflat m) ++ ws_wire_from keys' t) = (ws_idle m1 sl2, m :: t)).
      rewrite wr_feed_app, (ws_parse_frame key (sflat m) sl sl1 [m] m0 Hne Hmax Hkl Hf), Hf2. reflexivity.
  Qed.

  Definition ws_sys0 := @sys0 Msg Msg wsend wrecv (ws_init keys0) (wr_init sl0).

  Lemma ws_sender :
    sender_laws ws_queue (ws_do_output Msg sflat client) (ws_init keys0) wfm (ws_wire_from keys0) ws_rem (fun _ => 0%nat) ws_SI.
  Proof.
    split.
    - reflexivity.
    - split; [|reflexivity]. split; [cbn; lia|]. exists []. auto.
    - intros s ms m _ _ [Hoff (dn & Hms & Hk)]. split.
      + split; [exact Hoff|]. exists dn. cbn. split; [now rewrite Hms, app_assoc|exact Hk].
      + exists (ws_wire_from (ws_keys_after keys0 ms) [m]). split; [|apply ws_wire_from_app].
        unfold ws_rem. cbn [ws_queue ws_off ws_buf ws_keys ws_q]. rewrite ws_wire_from_app, app_assoc.
        do 2 f_equal. rewrite Hms, ws_keys_after_app, Hk. reflexivity.
    - intros s ms maxb scr s' x _ HSI H. destruct (ws_do_output_spec ms _ _ _ _ _ HSI H) as (? & ? & _). auto.
    - intros s ms maxb scr s' x _ HSI H. destruct (ws_do_output_spec ms _ _ _ _ _ HSI H) as (_ & _ & Hx). auto.
  Qed.

  (* the receiver decodes: final = between two frames with the slave gateway in its invariant, dead = error status *)
  Lemma ws_decoder :
    decoder_laws (wr_do_input (negb client)) (wr_init sl0) wfm (ws_wire_from keys0) (fun ms : list Msg => ms) (fun o : list Msg => o)
      (wr_byte (negb client)) (fun r => r) wr_wf (fun q => exists m1 sl, q = ws_idle m1 sl) (fun q => wr_err q = true).
  Proof.
    split; auto.
    - intros _. left. cbn. split; [lia|exact I].
    - intros ms r c maxb scr pipe rest r' o' pipe' _ _ Hwf H.
      destruct (wr_do_input_spec _ _ _ _ _ _ _ _ Hwf H) as (Hwf' & x & Hp & Hf & _). rewrite wr_feed_bfeed in Hf. eauto.
    - intros ms Hwf. destruct (ws_feed_wire ms Hwf keys0 sl0 [0; 0; 0; 0] keys_ok sinv0) as (m1 & sl' & Hf & _).
      rewrite wr_feed_bfeed in Hf. eauto.
    - intros q He b. now apply wr_byte_err.
    - intros q (m1 & sl & ->). discriminate.
    - intros ms r c maxb scr pipe rest r' o' pipe' _ _ Hwf He H Hne Hm Hk.
      destruct (wr_do_input_spec _ _ _ _ _ _ _ _ Hwf H) as (_ & x & -> & _ & Hx).
      apply app_shorter, Hx; auto. now destruct (wr_err r).
  Qed.
End WsProofs.
