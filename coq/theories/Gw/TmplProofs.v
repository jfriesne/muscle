(* C03 -- the templating gateway: the sender's and the receiver's template caches stay equal
   (same entries, same order, same byte tally) after every Message, every Message decodes to
   itself in whichever of the three wire forms it was sent, and therefore the sender and decoder
   laws of FrameProofs hold.  Premises: the Message-level functions (flatten/unflatten,
   templated flatten/unflatten, template hash) -- see the Section hypotheses. *)
From Coq Require Import List NArith ZArith Bool Lia ZifyBool.
From Muscle Require Import Gen.Consts Gw.GwBase Gw.GwLemmas Gw.FrameModel Gw.TmplModel Gw.TransportProofs Gw.FrameProofs.
Import ListNotations.
Local Open Scope N_scope.

Lemma rd64_le64 n rest : n < two64 -> rd64 (le64 n ++ rest) = n.
Proof.
  intros H. unfold rd64, le64. rewrite <- app_assoc.
  assert (Hlo : n mod two32 < two32) by (apply N.mod_lt; discriminate).
  assert (Hhi : n / two32 < two32).
  { apply N.div_lt_upper_bound; [discriminate|]. exact H. }
  rewrite rd32_le32 by exact Hlo.
  change 4 with (blen (le32 (n mod two32))). rewrite drop_app_exact, rd32_le32 by exact Hhi.
  pose proof (N.div_mod n two32 ltac:(discriminate)). lia.
Qed.

Lemma default_lt_flag : c_MUSCLE_MESSAGE_ENCODING_DEFAULT < flag_bit.
Proof. vm_compute. reflexivity. Qed.

(* the top bit of a header word is a flag on top of a 31-bit value *)
Lemma flag_split x (b : bool) : x < flag_bit ->
  let w := x + (if b then flag_bit else 0) in
  w < two32 /\ w mod flag_bit = x /\ (flag_bit <=? w) = b.
Proof.
  intros Hx w. subst w. assert (Ht : flag_bit + flag_bit = two32) by reflexivity. destruct b.
  - rewrite N.add_mod, N.mod_same, N.add_0_r, N.mod_mod, N.mod_small by (discriminate || exact Hx). lia.
  - rewrite N.add_0_r, N.mod_small by exact Hx. lia.
Qed.

Section TmplProofs.
  Variables MSG TPL : Type.
  Variable m_trivial : MSG -> bool.
  Variable m_what : MSG -> N.
  Variable m_of_what : N -> MSG.
  Variable m_tid : MSG -> N.
  Variable m_tmpl : MSG -> TPL.
  Variable t_tid : TPL -> N.
  Variable t_size : TPL -> N.
  Variable m_flat : MSG -> bytes.
  Variable m_unflat : bytes -> option MSG.
  Variable m_tflat : TPL -> MSG -> bytes.
  Variable m_tunflat : TPL -> bytes -> option MSG.
  Variable t_describes : TPL -> MSG -> bool.
  Variable max_cache : N.
  Variable max_in : N.

  (* ---- premises about the Message-level functions, for the Messages of the domain [wfm] *)
  Variable wfm : MSG -> Prop.
  Hypothesis H_trivial : forall m, wfm m -> m_trivial m = true ->
    m = m_of_what (m_what m) /\ m_what m < two32.
  Hypothesis H_full : forall m, wfm m -> m_trivial m = false ->
    m_unflat (m_flat m) = Some m /\ blen (m_flat m) <> 4.
  (* flattening against a template that describes the Message round-trips; NO injectivity of
     TemplateHashCode64 is assumed (the repaired gateway checks the template it finds) *)
  Hypothesis H_templated : forall m t, wfm m -> m_trivial m = false -> t_describes t m = true ->
    m_tunflat t (m_tflat t m) = Some m.
  Hypothesis H_tid : forall m, wfm m -> t_tid (m_tmpl m) = m_tid m /\ m_tid m < two64.
  (* sizes: the high bit of the two header words is a flag, so bodies stay below 2^31 *)
  Hypothesis H_size : forall m t, wfm m ->
    blen (m_flat m) < flag_bit /\ blen (m_flat m) <= max_in /\
    8 + blen (m_tflat t m) < flag_bit /\ 8 + blen (m_tflat t m) <= max_in.
  Hypothesis H_max_in : 4 <= max_in.

  Notation cache := (cache TPL).
  Notation tm_flat := (tm_flat MSG TPL m_trivial m_what m_of_what m_tid m_tmpl t_size m_flat m_tflat t_describes max_cache).
  Notation tm_unflat := (tm_unflat MSG TPL m_of_what m_tmpl t_tid t_size m_unflat m_tunflat max_cache).
  Notation c_add := (c_add MSG TPL m_of_what m_tmpl t_size max_cache).
  Notation c_trim := (c_trim MSG TPL m_of_what m_tmpl t_size max_cache).

  Definition entry_ok (e : N * TPL) : Prop :=
    exists m', wfm m' /\ m_trivial m' = false /\ snd e = m_tmpl m' /\ m_tid m' = fst e.
  Definition cache_ok (c : cache) : Prop := Forall entry_ok (fst c).
  (* the lock-step relation: the two caches are EQUAL (entries, order, tally) *)
  Definition tm_sync (cs cr : cache) : Prop := cs = cr /\ cache_ok cs.

  Lemma c_find_in id l t : c_find TPL id l = Some t -> In (id, t) l.
  Proof.
    induction l as [|[k t0] r IH]; cbn; [discriminate|].
    destruct (k =? id) eqn:E.
    - intros H. inversion H; subst. apply N.eqb_eq in E. subst. now left.
    - intros H. right. auto.
  Qed.

  Lemma c_remove_incl id l : incl (c_remove TPL id l) l.
  Proof.
    induction l as [|[k t0] r IH]; cbn; [apply incl_refl|].
    destruct (k =? id); [apply incl_tl, incl_refl|].
    intros x [Hx|Hx]; [now left|right; auto].
  Qed.

  Lemma removelast_incl {A} (l : list A) : incl (removelast l) l.
  Proof.
    induction l as [|a [|b r] IH]; cbn; [apply incl_refl|intros x []|].
    intros x [Hx|Hx]; [now left|right; apply IH; exact Hx].
  Qed.

  Lemma c_trim_incl fuel : forall l tally, incl (fst (c_trim fuel l tally)) l.
  Proof.
    induction fuel as [|f IH]; intros l tally; cbn [TmplModel.c_trim]; [apply incl_refl|].
    destruct (_ && _); [|apply incl_refl].
    eapply incl_tran; [apply IH|apply removelast_incl].
  Qed.

  Lemma cache_ok_touch id c : cache_ok c -> cache_ok (c_touch TPL id c).
  Proof.
    unfold cache_ok, c_touch. intros H. destruct (c_find TPL id (fst c)) as [t|] eqn:Ef; [|exact H].
    cbn [fst]. constructor.
    - rewrite Forall_forall in H. apply (H (id, t)). now apply c_find_in.
    - eapply incl_Forall; [apply c_remove_incl|exact H].
  Qed.

  Lemma cache_ok_add id t c : entry_ok (id, t) -> cache_ok c -> cache_ok (c_add id t c).
  Proof.
    unfold cache_ok, TmplModel.c_add. intros He H.
    eapply incl_Forall; [apply c_trim_incl|].
    constructor; auto. eapply incl_Forall; [apply c_remove_incl|exact H].
  Qed.

  Lemma tm_flat_len c m : f_hs <= blen (snd (tm_flat c m)).
  Proof.
    unfold TmplModel.tm_flat. destruct (m_trivial m); [|destruct (c_find TPL (m_tid m) (fst c)) as [t|]; [destruct (t_describes t m)|]];
      cbn [snd]; unfold tm_header; rewrite !blen_app, !blen_le32, f_hs_is_8; lia.
  Qed.

  Lemma tm_body_size_hdr n create payload :
    n < flag_bit ->
    tm_body_size (tm_header n create payload) = Some n.
  Proof.
    intros Hn. unfold tm_body_size, tm_header.
    destruct (flag_split n create Hn) as (L1 & L2 & _), (flag_split _ payload default_lt_flag) as (D1 & D2 & _).
    destruct (frame_head _ _ [] L1 D1) as (E1 & E2 & _). rewrite app_nil_r in E1, E2. rewrite E1, E2, L2, D2. reflexivity.
  Qed.

  (* UnflattenHeaderAndMessage on a buffer the sender built: the checks on the two header words
     pass and leave the dispatch on the two flags *)
  Lemma tm_unflat_frame c n create payload body :
    n = blen body -> n < flag_bit ->
    tm_unflat c (tm_header n create payload ++ body) =
    if payload then
      if create then (c, None)
      else if 8 <=? n then
        match c_find TPL (rd64 body) (fst c) with
        | Some t => (c_touch TPL (rd64 body) c, m_tunflat t (drop 8 body))
        | None => (c, None)
        end
      else (c, None)
    else
      match (if n =? 4 then Some (m_of_what (rd32 body)) else m_unflat body) with
      | None => (c, None)
      | Some m => if create then (c_add (t_tid (m_tmpl m)) (m_tmpl m) c, Some m) else (c, Some m)
      end.
  Proof.
    intros -> Hn. unfold tm_header. rewrite <- app_assoc.
    destruct (flag_split _ create Hn) as (L1 & L2 & L3), (flag_split _ payload default_lt_flag) as (D1 & D2 & D3).
    destruct (frame_head _ _ body L1 D1) as (E1 & E2 & E3 & E4).
    unfold TmplModel.tm_unflat, u32. rewrite E1, E2, E3, E4, L2, L3, D2, D3, N.mod_small, !N.eqb_refl.
    - reflexivity.
    - rewrite f_hs_is_8. unfold flag_bit, two32 in *. lia.
  Qed.

  Lemma tm_codec_sync cs cr m : tm_sync cs cr -> wfm m ->
    exists hdr payload cr',
      snd (tm_flat cs m) = hdr ++ payload /\ blen hdr = f_hs /\
      tm_body_size hdr = Some (blen payload) /\
      blen payload <= max_in /\ f_hs + blen payload < two32 /\
      tm_unflat cr (snd (tm_flat cs m)) = (cr', Some m) /\ tm_sync (fst (tm_flat cs m)) cr'.
  Proof.
    intros [<- Hok] Hm. unfold TmplModel.tm_flat.
    assert (Ht : flag_bit + flag_bit = two32) by reflexivity. assert (H8 : f_hs = 8) by reflexivity.
    assert (Hfb : 8 <= flag_bit) by (vm_compute; discriminate).
    (* a frame  tm_header |body| create payload ++ body  that the receiver turns into (cr', Some m) *)
    assert (Hframe : forall create payload body cs' cr', blen body < flag_bit -> blen body <= max_in ->
              tm_unflat cs (tm_header (blen body) create payload ++ body) = (cr', Some m) -> tm_sync cs' cr' ->
              exists hdr pl cr'',
                snd (cs', tm_header (blen body) create payload ++ body) = hdr ++ pl /\ blen hdr = f_hs /\
                tm_body_size hdr = Some (blen pl) /\ blen pl <= max_in /\ f_hs + blen pl < two32 /\
                tm_unflat cs (snd (cs', tm_header (blen body) create payload ++ body)) = (cr'', Some m) /\
                tm_sync (fst (cs', tm_header (blen body) create payload ++ body)) cr'').
    { intros create payload body cs' cr' Hb1 Hb2 Hun Hs'. exists (tm_header (blen body) create payload), body, cr'.
      cbn [fst snd]. repeat split; auto using tm_body_size_hdr; try apply Hs'; lia. }
    destruct (m_trivial m) eqn:Etriv.
    - (* what-code only *)
      destruct (H_trivial m Hm Etriv) as [Hmw Hw].
      apply (Hframe false false (le32 (m_what m)) cs cs); [reflexivity|exact H_max_in| |split; auto].
      rewrite tm_unflat_frame by reflexivity. cbn [N.eqb blen length le32 N.of_nat Pos.of_succ_nat Pos.succ Pos.eqb].
      rewrite <- (app_nil_r (le32 _)), rd32_le32, <- Hmw by exact Hw. reflexivity.
    - destruct (H_tid m Hm) as [Htid Hid64], (H_full m Hm Etriv) as [Hun Hne4].
      assert (Hplain : forall create, tm_unflat cs (tm_header (blen (m_flat m)) create false ++ m_flat m) =
                 if create then (c_add (m_tid m) (m_tmpl m) cs, Some m) else (cs, Some m)).
      { intros create. destruct (H_size m (m_tmpl m) Hm) as (Hs1 & _).
        rewrite tm_unflat_frame, (proj2 (N.eqb_neq _ _) Hne4), Hun, Htid by auto. reflexivity. }
      destruct (c_find TPL (m_tid m) (fst cs)) as [t|] eqn:Efind; [destruct (t_describes t m) eqn:Edesc|].
      + (* payload only, against the cached template *)
        destruct (H_size m t Hm) as (_ & _ & Hs1 & Hs2).
        set (body := le64 (m_tid m) ++ m_tflat t m).
        assert (Hbl : blen body = 8 + blen (m_tflat t m)) by (unfold body, le64; rewrite !blen_app, !blen_le32; lia).
        apply (Hframe false true body _ (c_touch TPL (m_tid m) cs)); [lia|lia| |split; auto using cache_ok_touch].
        rewrite tm_unflat_frame by (auto; lia).
        assert (F : (8 <=? blen body) = true) by lia. rewrite F. unfold body.
        rewrite rd64_le64, Efind by exact Hid64. change 8 with (blen (le64 (m_tid m))). rewrite drop_app_exact.
        f_equal. apply H_templated; auto.
      + (* same hash, other shape: plain format, caches untouched *)
        destruct (H_size m (m_tmpl m) Hm) as (Hs1 & Hs2 & _).
        apply (Hframe false false (m_flat m) cs cs); [exact Hs1|exact Hs2|exact (Hplain false)|split; auto].
      + (* full Message, the receiver creates the template too *)
        destruct (H_size m (m_tmpl m) Hm) as (Hs1 & Hs2 & _).
        apply (Hframe true false (m_flat m) _ (c_add (m_tid m) (m_tmpl m) cs)); [exact Hs1|exact Hs2|exact (Hplain true)|].
        split; [reflexivity|]. apply cache_ok_add; auto. exists m. cbn [fst snd]. auto.
  Qed.

  Definition tm_sys0 := f_sys0 MSG cache cache (cache0 TPL) (cache0 TPL).
  Definition tm_rem := fs_rem MSG cache tm_flat.

  Lemma tm_sync0 : tm_sync (cache0 TPL) (cache0 TPL).
  Proof. split; [reflexivity|constructor]. Qed.

  Definition tm_sender := f_sender MSG cache tm_flat (cache0 TPL) tm_flat_len wfm.
  Definition tm_decoder :=
    f_decoder MSG cache cache tm_flat tm_unflat tm_body_size max_in (cache0 TPL) (cache0 TPL) tm_flat_len tm_sync wfm tm_sync0 tm_codec_sync.

  (* the lock-step statement itself: whatever has happened, once the receiver has consumed
     everything the sender produced the two template caches are equal (entries, order, tally) *)
  Lemma tm_caches_in_step ms : Forall wfm ms -> forall cs cr, tm_sync cs cr ->
    exists cr', f_feed MSG cache tm_unflat tm_body_size max_in (idle cache cr) (wire_from MSG cache tm_flat cs ms) = (idle cache cr', ms) /\
                tm_sync (cs_after MSG cache tm_flat cs ms) cr'.
  Proof.
    intros H cs cr Hs.
    exact (f_feed_wire MSG cache cache tm_flat tm_unflat tm_body_size max_in tm_flat_len tm_sync wfm tm_codec_sync ms H cs cr Hs).
  Qed.
End TmplProofs.

(* ---------------------------------------------------------------------- the premises are satisfiable:
   a toy Message type (what-code, list of field values); the "template" of a Message is its
   field count, the template hash is injective on it. *)
Module Toy.
  Definition MSG := (N * list N)%type.
  Definition TPL := nat.
  Definition m_trivial (m : MSG) : bool := match snd m with [] => true | _ => false end.
  Definition m_what (m : MSG) : N := fst m.
  Definition m_of_what (w : N) : MSG := (w, []).
  Definition m_tmpl (m : MSG) : TPL := length (snd m).
  Definition t_tid (t : TPL) : N := N.of_nat t + 1.
  Definition m_tid (m : MSG) : N := t_tid (m_tmpl m).
  Definition t_size (t : TPL) : N := 12 + N.of_nat t.
  Definition m_flat (m : MSG) : bytes := le32 (fst m) ++ le32 (blen (snd m)) ++ snd m.
  Definition m_unflat (b : bytes) : option MSG :=
    if (8 <=? blen b) && (rd32 (drop 4 b) =? blen (drop 8 b)) then Some (rd32 b, drop 8 b) else None.
  Definition m_tflat (t : TPL) (m : MSG) : bytes := le32 (fst m) ++ snd m.
  Definition m_tunflat (t : TPL) (b : bytes) : option MSG :=
    if blen b =? 4 + N.of_nat t then Some (rd32 b, drop 4 b) else None.
  Definition t_describes (t : TPL) (m : MSG) : bool := Nat.eqb t (length (snd m)).
  Definition wfm (m : MSG) : Prop := fst m < two32 /\ blen (snd m) < 1000.

  Lemma H_trivial m : wfm m -> m_trivial m = true -> m = m_of_what (m_what m) /\ m_what m < two32.
  Proof.
    destruct m as [w fs]. unfold wfm, m_trivial, m_of_what, m_what. cbn. intros [Hw _] Hf.
    destruct fs; [auto|discriminate].
  Qed.

  Lemma H_full m : wfm m -> m_trivial m = false -> m_unflat (m_flat m) = Some m /\ blen (m_flat m) <> 4.
  Proof.
    destruct m as [w fs]. unfold wfm, m_trivial, m_flat, m_unflat. cbn [fst snd]. intros [Hw Hl] Hf.
    destruct (frame_head w (blen fs) fs Hw) as (E1 & E2 & E3 & E4); [unfold two32; lia|].
    change f_hs with 8 in E3, E4. rewrite E1, E2, E3, E4, N.eqb_refl.
    assert ((8 <=? 8 + blen fs) = true) as -> by lia. split; [reflexivity|lia].
  Qed.

  Lemma H_templated m t : wfm m -> m_trivial m = false -> t_describes t m = true ->
    m_tunflat t (m_tflat t m) = Some m.
  Proof.
    destruct m as [w fs]. unfold wfm, t_describes, m_tunflat, m_tflat. cbn [fst snd].
    intros [Hw _] _ Hd. apply Nat.eqb_eq in Hd. subst t.
    rewrite blen_app, blen_le32. unfold blen. rewrite N.eqb_refl.
    rewrite rd32_le32 by exact Hw.
    assert (E : drop 4 (le32 w ++ fs) = fs) by exact (drop_app_exact (le32 w) fs).
    unfold bytes, byte in *. rewrite E. reflexivity.
  Qed.

  Lemma H_tid m : wfm m -> t_tid (m_tmpl m) = m_tid m /\ m_tid m < two64.
  Proof.
    destruct m as [w fs]. unfold wfm, m_tid, t_tid, m_tmpl. cbn [fst snd]. intros [_ Hl].
    split; [reflexivity|]. unfold blen, two64 in *. lia.
  Qed.

  Lemma H_size m (t : TPL) : wfm m ->
    blen (m_flat m) < flag_bit /\ blen (m_flat m) <= c_MUSCLE_NO_LIMIT /\
    8 + blen (m_tflat t m) < flag_bit /\ 8 + blen (m_tflat t m) <= c_MUSCLE_NO_LIMIT.
  Proof.
    destruct m as [w fs]. unfold wfm, m_flat, m_tflat. cbn [fst snd]. intros [_ Hl].
    rewrite !blen_app, !blen_le32.
    assert (flag_bit = 2147483648) by reflexivity. assert (c_MUSCLE_NO_LIMIT = 4294967295) by reflexivity. lia.
  Qed.
End Toy.

(* ---------------------------------------------------------------------- the hash-collision finding.
   A toy instance in which every template hashes to the same id and TemplatedFlatten pads /
   truncates to the template's shape (as the real one does).  Trusting the hash
   ([t_describes := fun _ _ => true], the behaviour before the fix) delivers an ALTERED second
   Message; with the template check the same run delivers exactly what was sent.  The real-code
   replay is the directed case "P:0:..|q:{a:int32x3,b:int32x1};q:{a:int32x1,b:int32x2};.." of
   checks/c03.py. *)
Module ToyCollide.
  Import Toy.
  Definition c_tid (_ : MSG) : N := 7.
  Definition c_ttid (_ : TPL) : N := 7.
  Definition c_tflat (t : TPL) (m : MSG) : bytes := le32 (fst m) ++ firstn t (snd m ++ repeat 0 t).
  Definition big : N := c_MUSCLE_NO_LIMIT.
  Definition A : MSG := (1, [1; 2; 3]).
  Definition B : MSG := (1, [5]).
  Definition evs : list (event MSG) :=
    [EQueue A; EQueue B; EOut big [big; big; big]; EIn big [big; big; big; big; big; big]].
  Definition run (describes : TPL -> MSG -> bool) :=
    sys_run fs_queue
      (tm_do_output MSG TPL m_trivial m_what m_of_what c_tid m_tmpl t_size m_flat c_tflat describes 1000)
      (tm_do_input MSG TPL m_of_what m_tmpl c_ttid t_size m_unflat m_tunflat 1000 big)
      (tm_sys0 MSG TPL) evs.

  Lemma tm_collision_refuted :
    ev_msgs evs = [A; B] /\
    s_dlv (run (fun _ _ => true)) = [A; (1, [5; 0; 0])] /\      (* hash trusted: altered *)
    s_dlv (run t_describes) = [A; B].                           (* template checked: exact *)
  Proof. vm_compute. auto. Qed.
End ToyCollide.
