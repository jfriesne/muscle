(* C03 -- proofs about the plain-text gateway model: sender, line splitter (chunk processing =
   folding the byte step, for NUL-free text), decoding of CR / LF / CRLF terminated lines for
   every segmentation, the NUL counter-example, the sender and decoder laws, and the receiver alone
   against foreign senders. *)
From Coq Require Import List NArith ZArith Bool Lia ZifyBool.
From Muscle Require Import Gen.Consts Gw.GwBase Gw.GwLemmas Gw.TextModel Gw.TransportProofs.
Import ListNotations.
Local Open Scope N_scope.

Local Arguments skipn : simpl never.
Local Arguments firstn : simpl never.
Local Arguments nth : simpl never.

(* ====================================================================== sender *)
Section TextSend.
  Variable eol : bytes.
  Hypothesis eol_ne : eol <> [].

  Definition ts_wf (st : tsend) : Prop :=
    match ts_cur st with
    | None => True
    | Some lines =>
        ((ts_off st < 0)%Z /\ ts_idx st = (-1)%Z) \/
        ((0 <= ts_idx st < Z.of_nat (length lines))%Z /\
         ts_text st = nth (Z.to_nat (ts_idx st)) lines [] ++ eol /\
         (0 <= ts_off st <= Z.of_N (blen (ts_text st)))%Z)
    end.

  Definition t_qbytes (q : list (list bytes)) : bytes := concat (map (t_wire_msg eol) q).

  Definition ts_rem (st : tsend) : bytes :=
    match ts_cur st with
    | None => []
    | Some lines =>
        if (ts_off st <? 0)%Z then t_wire_msg eol lines
        else drop (Z.to_N (ts_off st)) (ts_text st)
             ++ t_wire_msg eol (skipn (S (Z.to_nat (ts_idx st))) lines)
    end ++ t_qbytes (ts_q st).

  Definition ts_mu (st : tsend) : nat :=
    (length (ts_q st) + match ts_cur st with Some _ => 1 | None => 0 end)%nat.

  Lemma ts_has_bytes_rem (st : tsend) : ts_has_bytes st = false -> ts_rem st = [].
  Proof.
    unfold ts_has_bytes, ts_rem. destruct (ts_cur st); [discriminate|].
    destruct (ts_q st); [reflexivity|discriminate].
  Qed.

  Lemma t_qbytes_app q1 q2 : t_qbytes (q1 ++ q2) = t_qbytes q1 ++ t_qbytes q2.
  Proof. unfold t_qbytes. now rewrite map_app, concat_app. Qed.

  (* PlainTextMessageIOGateway.cpp 105-117 *)
  Lemma t_send_spec st maxb scr st3 x cont :
    (0 <= ts_off st <= Z.of_N (blen (ts_text st)))%Z ->
    t_send st maxb scr = (st3, x, cont) ->
    drop (Z.to_N (ts_off st)) (ts_text st) = x ++ drop (Z.to_N (ts_off st) + blen x) (ts_text st) /\
    (0 <= ts_off st + Z.of_N (blen x) <= Z.of_N (blen (ts_text st)))%Z /\
    match cont with
    | Some (maxb', scr') =>
        st3 = mkTS (ts_q st) (ts_cur st) (ts_idx st) (ts_text st) (ts_off st + Z.of_N (blen x)) /\
        x <> [] /\ (length scr' <= length scr)%nat
    | None => st3 = st /\ x = [] /\
              ((ts_off st < Z.of_N (blen (ts_text st)))%Z -> 1 <= maxb -> 1 <= io_k scr -> False)
    end.
  Proof.
    intros Hoff H. unfold t_send in H.
    destruct (ts_off st <? Z.of_N (blen (ts_text st)))%Z eqn:Elt.
    - destruct (io_write (take (N.min (blen (ts_text st) - Z.to_N (ts_off st)) maxb)
                               (drop (Z.to_N (ts_off st)) (ts_text st))) scr) as [y scr'] eqn:Ew.
      apply io_write_take in Ew. destruct Ew as (Hd & Hb & Hs).
      rewrite blen_drop in Hb.
      destruct (0 <? blen y) eqn:Ey; inversion H; subst; clear H.
      + split; [rewrite Hd at 1; f_equal; rewrite drop_drop; reflexivity|].
        split; [lia|]. split; auto. split; [intros ->; cbn in Ey; lia|apply io_tl_length].
      + assert (y = []) by (apply blen_0; lia). subst y. cbn [app blen length N.of_nat].
        rewrite N.add_0_r. split; auto. split; [lia|]. split; auto. split; auto.
        intros. cbn in Hb. lia.
    - inversion H; subst; clear H. cbn [app blen length N.of_nat].
      rewrite N.add_0_r. split; auto. split; [lia|]. split; auto. split; auto. intros. lia.
  Qed.

  (* lines 78-85: take the next Message if there is no current one *)
  Definition ts_pop (st : tsend) : tsend :=
    match ts_cur st with
    | Some _ => st
    | None => match ts_q st with
              | [] => mkTS [] None (-1) (ts_text st) (-1)
              | m :: q => mkTS q (Some m) (-1) (ts_text st) (-1)
              end
    end.

  Lemma ts_pop_spec st : ts_wf st ->
    ts_wf (ts_pop st) /\ ts_rem (ts_pop st) = ts_rem st /\ (ts_mu (ts_pop st) <= ts_mu st)%nat /\
    (ts_cur (ts_pop st) = None -> ts_rem st = []).
  Proof.
    intros Hwf. unfold ts_pop. destruct (ts_cur st) eqn:Ec; [repeat split; auto; congruence|].
    destruct (ts_q st) as [|m q] eqn:Eq; unfold ts_wf, ts_rem, ts_mu; cbn [ts_cur ts_q ts_off ts_idx]; rewrite ?Ec, ?Eq.
    - repeat split; auto.
    - repeat split; [left; lia|cbn; lia|discriminate].
  Qed.

  (* what a run of the send loop achieves; the last part: a call that is allowed to move a byte does, or
     finishes a Message, while bytes remain *)
  Definition ts_post (fuel : nat) (st : tsend) (acc : bytes) (maxb : N) (scr : list N) (st' : tsend) (acc' : bytes) : Prop :=
    ts_wf st' /\ (ts_mu st' <= ts_mu st)%nat /\ exists x, acc' = acc ++ x /\ ts_rem st = x ++ ts_rem st' /\
      (fuel <> O -> ts_rem st <> [] -> 1 <= maxb -> 1 <= io_k scr -> x <> [] \/ (ts_mu st' < ts_mu st)%nat).

  Lemma t_out_spec fuel : forall st maxb scr acc st' acc',
    ts_wf st -> t_out_aux fuel eol st maxb scr acc = (st', acc') -> ts_post fuel st acc maxb scr st' acc'.
  Proof.
    induction fuel as [|fuel IH]; intros st maxb scr acc st' acc' Hwf H; cbn [t_out_aux] in H.
    { inversion H; subst. split; auto. split; auto. exists []. rewrite app_nil_r. repeat split; auto. }
    fold (ts_pop st) in H.
    destruct (ts_pop_spec st Hwf) as (Hwf1 & Hrem1 & Hmu1 & Hnone). clear Hwf.
    assert (Hmu : forall k, (k <= ts_mu (ts_pop st))%nat -> (k <= ts_mu st)%nat) by (intros; lia).
    destruct (ts_cur (ts_pop st)) as [lines|] eqn:Ec1.
    2:{ inversion H; subst. split; auto. split; auto. exists []. rewrite app_nil_r. repeat split; auto. }
    unfold ts_wf in Hwf1. rewrite Ec1 in Hwf1.
    (* what a completed t_send + recursion gives *)
    assert (Hsend : forall st2, ts_cur st2 = Some lines -> ts_q st2 = ts_q (ts_pop st) ->
                (0 <= ts_idx st2 < Z.of_nat (length lines))%Z ->
                ts_text st2 = nth (Z.to_nat (ts_idx st2)) lines [] ++ eol ->
                (0 <= ts_off st2 < Z.of_N (blen (ts_text st2)))%Z ->
                match t_send st2 maxb scr with
                | (st3, x, Some (maxb', scr')) => t_out_aux fuel eol st3 maxb' scr' (acc ++ x)
                | (st3, x, None) => (st3, acc ++ x)
                end = (st', acc') ->
                ts_wf st' /\ (ts_mu st' <= ts_mu st)%nat /\
                exists x, acc' = acc ++ x /\ ts_rem st2 = x ++ ts_rem st' /\ (1 <= maxb -> 1 <= io_k scr -> x <> [])).
    { intros st2 Hc2 Hq2 Hi2 Ht2 Ho2 H2.
      destruct (t_send st2 maxb scr) as [[st3 x] cont] eqn:Es.
      assert (Ho2' : (0 <= ts_off st2 <= Z.of_N (blen (ts_text st2)))%Z) by lia.
      destruct (t_send_spec _ _ _ _ _ _ Ho2' Es) as (Hd & Hoff & Hcont).
      assert (Hrem3 : forall st3', ts_cur st3' = Some lines -> ts_q st3' = ts_q st2 -> ts_idx st3' = ts_idx st2 ->
                        ts_text st3' = ts_text st2 -> ts_off st3' = (ts_off st2 + Z.of_N (blen x))%Z ->
                        ts_rem st2 = x ++ ts_rem st3').
      { intros st3' Hc3 Hq3 Hi3 Ht3 Ho3. unfold ts_rem. rewrite Hc2, Hc3, Hq3, Hi3, Ht3, Ho3.
        assert (E1 : (ts_off st2 <? 0)%Z = false) by lia.
        assert (E2 : (ts_off st2 + Z.of_N (blen x) <? 0)%Z = false) by lia.
        rewrite E1, E2. rewrite Hd at 1. rewrite <- !app_assoc. do 2 f_equal. f_equal. lia. }
      destruct cont as [[maxb' scr']|].
      - destruct Hcont as (-> & Hx & _).
        eapply IH in H2.
        + destruct H2 as (Hwf' & Hmu' & y & Hacc & Hrem & _). split; auto. split.
          * apply Hmu. unfold ts_mu in *. cbn [ts_q ts_cur] in Hmu'. rewrite Hc2, Hq2 in Hmu'. rewrite Ec1. exact Hmu'.
          * exists (x ++ y). split; [now rewrite Hacc, app_assoc|]. split.
            -- rewrite <- app_assoc, <- Hrem. apply Hrem3; auto.
            -- intros _ _ E. apply app_eq_nil in E. destruct E; contradiction.
        + unfold ts_wf. cbn [ts_cur ts_idx ts_text ts_off]. rewrite Hc2. right. split; auto.
      - destruct Hcont as (-> & -> & Hno). inversion H2; subst; clear H2.
        split; [unfold ts_wf; rewrite Hc2; right; split; auto; split; auto; lia|]. split.
        + apply Hmu. unfold ts_mu. rewrite Hc2, Hq2, Ec1. lia.
        + exists []. repeat split; auto. intros H1 H2. destruct (Hno ltac:(lia) H1 H2). }
    assert (Hfin : forall st2, ts_rem (ts_pop st) = ts_rem st2 ->
              (ts_wf st' /\ (ts_mu st' <= ts_mu st)%nat /\
               exists x, acc' = acc ++ x /\ ts_rem st2 = x ++ ts_rem st' /\ (1 <= maxb -> 1 <= io_k scr -> x <> [])) ->
              ts_post (S fuel) st acc maxb scr st' acc').
    { intros st2 Hr (Hwf' & Hmu' & x & Ha & Hx & Hp). split; auto. split; auto. exists x. rewrite <- Hrem1, Hr. auto. }
    destruct ((ts_off (ts_pop st) <? 0) || (Z.of_N (blen (ts_text (ts_pop st))) <=? ts_off (ts_pop st)))%Z eqn:Esel.
    - destruct (nth_error lines (Z.to_nat (ts_idx (ts_pop st) + 1))) as [l|] eqn:En.
      + (* next line *)
        set (st2 := mkTS (ts_q (ts_pop st)) (Some lines) (ts_idx (ts_pop st) + 1) (l ++ eol) 0) in *.
        assert (Hidx : (-1 <= ts_idx (ts_pop st))%Z) by (destruct Hwf1 as [[_ ->]|[[? ?] _]]; lia).
        assert (Hl : nth (Z.to_nat (ts_idx (ts_pop st) + 1)) lines [] = l) by (eapply nth_error_nth; eauto).
        assert (Hlt : (Z.to_nat (ts_idx (ts_pop st) + 1) < length lines)%nat) by (apply nth_error_Some; congruence).
        apply (Hfin st2); [|apply (Hsend st2); auto].
        * unfold ts_rem, st2. cbn [ts_cur ts_off ts_idx ts_text ts_q]. rewrite Ec1. f_equal.
          change (0 <? 0)%Z with false. change (Z.to_N 0) with 0. rewrite drop_0.
          destruct Hwf1 as [[Hoff Hi]|[[Hi1 Hi2] [Htext Hoff]]].
          -- assert (E : (ts_off (ts_pop st) <? 0)%Z = true) by lia. rewrite E.
             rewrite Hi in *. change (Z.to_nat (-1 + 1)) with 0%nat in *.
             destruct lines as [|l0 t]; cbn in En; [discriminate|]. inversion En; subst l0. reflexivity.
          -- assert (E : (ts_off (ts_pop st) <? 0)%Z = false) by lia. rewrite E.
             rewrite drop_all by lia. cbn [app].
             replace (S (Z.to_nat (ts_idx (ts_pop st)))) with (Z.to_nat (ts_idx (ts_pop st) + 1)) by lia.
             rewrite (skipn_nth_error _ _ _ En). reflexivity.
        * unfold st2; cbn [ts_idx]. lia.
        * unfold st2; cbn [ts_text ts_idx]. now rewrite Hl.
        * unfold st2; cbn [ts_off ts_text]. rewrite blen_app. pose proof (blen_pos _ eol_ne). lia.
      + (* no more lines: Message done *)
        eapply IH in H; [|exact I].
        destruct H as (Hwf' & Hmu' & y & Hacc & Hrem & _).
        assert (Hlt : (ts_mu st' < ts_mu st)%nat) by (unfold ts_mu in *; cbn [ts_q ts_cur] in Hmu'; rewrite Ec1 in Hmu1; lia).
        split; auto. split; [lia|]. exists y. split; auto. split; [|auto].
        rewrite <- Hrem, <- Hrem1. unfold ts_rem. cbn [ts_cur ts_q]. rewrite Ec1.
        destruct Hwf1 as [[Hoff Hi]|[[Hi1 Hi2] [Htext Hoff]]].
        * assert (E : (ts_off (ts_pop st) <? 0)%Z = true) by lia. rewrite E.
          rewrite Hi in En. change (Z.to_nat (-1 + 1)) with 0%nat in En.
          destruct lines; [reflexivity|discriminate].
        * assert (E : (ts_off (ts_pop st) <? 0)%Z = false) by lia. rewrite E.
          rewrite drop_all by lia. cbn [app].
          replace (S (Z.to_nat (ts_idx (ts_pop st)))) with (Z.to_nat (ts_idx (ts_pop st) + 1)) by lia.
          rewrite (skipn_nth_none _ _ En). reflexivity.
    - destruct Hwf1 as [[Hoff Hi]|[[Hi1 Hi2] [Htext Hoff]]]; [lia|].
      apply (Hfin (ts_pop st)); [reflexivity|apply (Hsend (ts_pop st)); auto; lia].
  Qed.

  Lemma text_fuel_pos : N.to_nat c_text_max_recurse <> O.
  Proof. vm_compute. discriminate. Qed.

  Lemma t_do_output_spec st maxb scr st' x :
    ts_wf st -> t_do_output eol st maxb scr = (st', x) ->
    ts_wf st' /\ (ts_mu st' <= ts_mu st)%nat /\ ts_rem st = x ++ ts_rem st' /\
    (ts_rem st <> [] -> 1 <= maxb -> 1 <= io_k scr -> x <> [] \/ (ts_mu st' < ts_mu st)%nat).
  Proof.
    unfold t_do_output. intros Hwf H.
    destruct (t_out_spec _ _ _ _ _ _ _ Hwf H) as (Hwf' & Hmu & y & Hy & Hrem & Hpr).
    cbn in Hy. subst y. auto using text_fuel_pos.
  Qed.
End TextSend.

(* ====================================================================== receiver *)
Definition nul_free (b : bytes) : Prop := Forall (fun c => c <> 0) b.
Definition line_ok (l : bytes) : Prop := Forall (fun c => c <> CR /\ c <> LF /\ c <> 0) l.

Lemma cstr_id b : nul_free b -> cstr b = b.
Proof.
  induction 1 as [|c t Hc _ IH]; cbn; auto.
  destruct (c =? 0) eqn:E; [apply N.eqb_eq in E; contradiction|]. now rewrite IH.
Qed.

Lemma nul_free_app a b : nul_free (a ++ b) <-> nul_free a /\ nul_free b.
Proof. apply Forall_app. Qed.

(* ---- the split lemma for the byte-level splitter *)
Lemma t_feed_app a st b :
  t_feed st (a ++ b) =
  let '(st1, o1) := t_feed st a in let '(st2, o2) := t_feed st1 b in (st2, o1 ++ o2).
Proof. exact (bfeed_app t_byte a st b). Qed.

(* ---- processing one read chunk = folding the byte step over it (NUL-free text) *)
Lemma t_scan_feed chunk : forall cur inc pcr lines inc' pcr' lines' cur',
  nul_free chunk -> nul_free cur -> (pcr = true -> cur = []) ->
  t_scan chunk cur inc pcr lines = (inc', pcr', lines', cur') ->
  exists new, lines' = lines ++ new /\
              t_feed (inc ++ cur, pcr) chunk = ((inc' ++ cur', pcr'), new) /\
              nul_free cur' /\ (pcr' = true -> cur' = []).
Proof.
  induction chunk as [|c t IH]; intros cur inc pcr lines inc' pcr' lines' cur' Hn Hcur Hp H; cbn [t_scan] in H.
  - inversion H; subst. exists []. rewrite app_nil_r. cbn. auto.
  - inversion Hn as [|? ? Hc Ht]; subst. cbn [t_feed]. unfold t_byte.
    destruct ((c =? CR) || (c =? LF)) eqn:Eterm.
    + destruct ((c =? CR) || negb pcr) eqn:Eemit.
      * apply IH in H; auto; try solve [constructor]; try (intros _; reflexivity).
        destruct H as (new & Hl & Hf & Hc' & Hp').
        rewrite cstr_id in Hl by auto.
        exists ((inc ++ cur) :: new). rewrite Hl, <- app_assoc. split; [reflexivity|].
        cbn [app] in Hf. rewrite Hf. auto.
      * assert (pcr = true) by (destruct pcr; auto; rewrite orb_true_r in Eemit; discriminate).
        rewrite (Hp H0) in *. rewrite app_nil_r.
        apply IH in H; auto; try solve [constructor]; try (intros _; reflexivity).
        destruct H as (new & Hl & Hf & Hc' & Hp').
        exists new. split; auto. rewrite app_nil_r in Hf.
        assert (Ecr : (c =? CR) = false) by (destruct (c =? CR); auto; discriminate).
        rewrite Ecr in Hf. unfold bytes, byte in *. rewrite Hf. auto.
    + apply IH in H; auto.
      * destruct H as (new & Hl & Hf & Hc' & Hp').
        exists new. split; auto. rewrite <- app_assoc. unfold bytes, byte in *. rewrite Hf. auto.
      * apply Forall_app; split; auto.
      * discriminate.
Qed.

Lemma t_do_input_spec st maxb scr pipe st' o pipe' :
  nul_free pipe -> (tr_cr st = true -> tr_text st = []) ->
  t_do_input st maxb scr pipe = (st', o, pipe') ->
  exists x, pipe = x ++ pipe' /\
            t_feed (tr_text st, tr_cr st) x = ((tr_text st', tr_cr st'), concat o) /\
            blen x = N.min (N.min maxb (c_text_buf_size - 1)) (N.min (io_k scr) (blen pipe)).
Proof.
  intros Hn Hinv. unfold t_do_input.
  destruct (io_read (N.min maxb (c_text_buf_size - 1)) scr pipe) as [[x p1] s1] eqn:Er.
  apply io_read_spec in Er. destruct Er as (Hp & Hb & _).
  destruct (blen x =? 0) eqn:E0.
  - intros H. inversion H; subst; clear H. assert (x = []) by (apply blen_0; lia). subst x.
    exists []. cbn. auto.
  - destruct (t_scan x [] (tr_text st) (tr_cr st) []) as [[[inc pcr] lines] cur] eqn:Es.
    intros H. inversion H; subst; clear H.
    assert (Hnx : nul_free x) by (apply nul_free_app in Hn; tauto).
    apply t_scan_feed in Es; auto; [|constructor].
    destruct Es as (new & Hl & Hf & Hc & _). cbn in Hl. subst new. rewrite app_nil_r in Hf.
    exists x. split; auto. split; auto. cbn [tr_text tr_cr].
    unfold bytes, byte in *. rewrite Hf. f_equal.
    + f_equal. destruct cur; [now rewrite app_nil_r|]. now rewrite cstr_id.
    + destruct lines; cbn; [reflexivity|now rewrite app_nil_r].
Qed.

(* ---- the invariant "previous char was CR => no pending text" *)
Lemma t_byte_inv st c st' o :
  (snd st = true -> fst st = []) -> t_byte st c = (st', o) -> (snd st' = true -> fst st' = []).
Proof.
  destruct st as [line pcr]. unfold t_byte. cbn [fst snd]. intros Hi H.
  destruct ((c =? CR) || (c =? LF)); [destruct ((c =? CR) || negb pcr)|]; inversion H; subst; cbn; auto; discriminate.
Qed.

Lemma t_feed_inv bs : forall st st' o,
  (snd st = true -> fst st = []) -> t_feed st bs = (st', o) -> (snd st' = true -> fst st' = []).
Proof.
  induction bs as [|c t IH]; intros st st' o Hi H; cbn [t_feed] in H.
  - inversion H; subst; auto.
  - destruct (t_byte st c) as [st1 o1] eqn:Eb. destruct (t_feed st1 t) as [st2 o2] eqn:Ef.
    inversion H; subst. apply (IH st1 st' o2); auto. apply (t_byte_inv st c st1 o1); auto.
Qed.

(* ---- decoding terminated lines *)
Lemma t_feed_line l : forall p b, line_ok l ->
  t_feed (p, b) l = ((p ++ l, match l with [] => b | _ => false end), []).
Proof.
  induction l as [|c t IH]; intros p b Hl; cbn [t_feed].
  - now rewrite app_nil_r.
  - inversion Hl as [|? ? [H1 [H2 H3]] Ht]; subst. unfold t_byte.
    assert (E1 : (c =? CR) = false) by (apply N.eqb_neq; auto).
    assert (E2 : (c =? LF) = false) by (apply N.eqb_neq; auto).
    rewrite E1, E2. cbn [orb]. rewrite IH by auto. rewrite <- app_assoc. cbn [app].
    destruct t; reflexivity.
Qed.

Definition eol_ok (eol : bytes) : Prop := eol = [CR; LF] \/ eol = [CR] \/ eol = [LF].

(* ---- a stream in which every line has its OWN terminator (CR, LF or CRLF) decodes to its lines as long as it
   is not inherently ambiguous: a CR-terminated line directly followed by an empty LF-terminated line reads as
   one CRLF.  [mixed_ok b] carries the "previous byte was CR" flag along. *)
Definition ends_cr (t : bytes) : bool := match t with [13] => true | _ => false end.

Fixpoint mixed_ok (b : bool) (lts : list (bytes * bytes)) : Prop :=
  match lts with
  | [] => True
  | (l, t) :: r =>
      line_ok l /\ eol_ok t /\ ~ (b = true /\ l = [] /\ t = [LF]) /\ mixed_ok (ends_cr t) r
  end.

Definition mixed_wire (lts : list (bytes * bytes)) : bytes := flat_map (fun lt => fst lt ++ snd lt) lts.

Lemma t_feed_mixed lts : forall b, mixed_ok b lts ->
  exists b', t_feed ([], b) (mixed_wire lts) = (([], b'), map fst lts).
Proof.
  induction lts as [|[l t] r IH]; intros b H; cbn [mixed_wire flat_map map fst snd].
  - exists b. reflexivity.
  - destruct H as (Hl & Ht & Hamb & Hr).
    destruct (IH _ Hr) as (b2 & Hf2).
    exists b2. rewrite <- app_assoc, t_feed_app, t_feed_line by auto. cbn [app].
    set (pcr := match l with [] => b | _ => false end).
    assert (Hstep : t_feed (l, pcr) t = (([], ends_cr t), [l])).
    { destruct Ht as [-> | [-> | ->]].
      - cbn [t_feed]. unfold t_byte. cbn. reflexivity.
      - cbn [t_feed]. unfold t_byte. cbn. reflexivity.
      - assert (Hp : pcr = false).
        { subst pcr. destruct l; auto. destruct b; auto. exfalso. apply Hamb. auto. }
        rewrite Hp. cbn [t_feed]. unfold t_byte. cbn. reflexivity. }
    unfold bytes, byte in *. rewrite (t_feed_app t (l, pcr)), Hstep. fold (mixed_wire r). unfold bytes, byte in *. rewrite Hf2. reflexivity.
Qed.

Lemma mixed_wire_nul_free lts : forall b, mixed_ok b lts -> nul_free (mixed_wire lts).
Proof.
  induction lts as [|[l t] r IH]; intros b H; cbn [mixed_wire flat_map fst snd]; [constructor|].
  destruct H as (Hl & Ht & _ & Hr). apply nul_free_app; split; [|exact (IH _ Hr)].
  apply nul_free_app; split.
  - eapply Forall_impl; [|exact Hl]. intros a Ha. cbv beta in Ha. destruct Ha as (_ & _ & Ha). exact Ha.
  - destruct Ht as [-> | [-> | ->]]; repeat constructor; discriminate.
Qed.

(* the sender's stream: the same terminator after every line *)
Definition uniform (eol : bytes) (lines : list bytes) : list (bytes * bytes) := map (fun l => (l, eol)) lines.

Lemma mixed_wire_uniform eol lines : mixed_wire (uniform eol lines) = t_wire_msg eol lines.
Proof. unfold mixed_wire, t_wire_msg, uniform. induction lines as [|l t IH]; cbn; [reflexivity|]. now rewrite IH. Qed.

Lemma map_fst_uniform eol lines : map fst (uniform eol lines) = lines.
Proof. unfold uniform. rewrite map_map. apply map_id. Qed.

(* never ambiguous: the flag is set only after a CR terminator, and then the terminator is not a bare LF *)
Lemma mixed_uniform eol lines : eol_ok eol -> Forall line_ok lines ->
  forall b, (b = true -> eol <> [LF]) -> mixed_ok b (uniform eol lines).
Proof.
  intros He. induction 1 as [|l t Hl _ IH]; intros b Hb; cbn; [exact I|].
  split; [exact Hl|]. split; [exact He|]. split; [intros (Hb1 & _ & Hlf); exact (Hb Hb1 Hlf)|].
  apply IH. destruct He as [-> | [-> | ->]]; cbn; discriminate.
Qed.

(* ---- the NUL counter-example: with a NUL byte in the stream the delivered text depends on
   where the read boundary falls ("ab\0cd\n" in one read gives the line "ab"; with the
   boundary after the NUL it gives "abcd").  NUL is outside the property's domain of text lines;
   the correspondence stream text-foreign replays exactly this on the real code. *)
Definition nul_stream : bytes := [97; 98; 0; 99; 100; 10].
Lemma text_nul_refuted :
  let big := c_MUSCLE_NO_LIMIT in
  let '(_, o1, _) := t_do_input tr_init big [big] nul_stream in
  let '(r2, o2a, p2) := t_do_input tr_init big [3] nul_stream in
  let '(_, o2b, _) := t_do_input r2 big [big] p2 in
  concat o1 = [[97; 98]] /\ concat (o2a ++ o2b) = [[97; 98; 99; 100]].
Proof. vm_compute. auto. Qed.

(* ====================================================================== end to end *)
Section TextE2E.
  Variable eol : bytes.
  Hypothesis eol_is_ok : eol_ok eol.

  Lemma eol_ne : eol <> [].
  Proof. destruct eol_is_ok as [-> | [-> | ->]]; discriminate. Qed.

  Definition text_wfm (m : list bytes) : Prop := Forall line_ok m.

  Lemma text_all_ok ms : Forall text_wfm ms -> Forall line_ok (concat ms).
  Proof. induction 1 as [|m t Hm _ IH]; cbn; [constructor|]. apply Forall_app; auto. Qed.

  Lemma text_mixed_ok ms : Forall text_wfm ms -> mixed_ok false (uniform eol (concat ms)).
  Proof. intros Hwf. apply mixed_uniform; auto using text_all_ok. discriminate. Qed.

  Lemma text_wire_mixed ms : t_qbytes eol ms = mixed_wire (uniform eol (concat ms)).
  Proof.
    rewrite mixed_wire_uniform. unfold t_qbytes, t_wire_msg. induction ms as [|m t IH]; cbn; auto.
    rewrite IH, flat_map_app. reflexivity.
  Qed.

  Definition text_sys0 := @sys0 (list bytes) (list bytes) tsend trecv ts_init tr_init.

  Lemma text_sender :
    sender_laws ts_queue (t_do_output eol) ts_init text_wfm (t_qbytes eol) (ts_rem eol) ts_mu (fun s _ => ts_wf eol s).
  Proof.
    split.
    - reflexivity.
    - split; [exact I|reflexivity].
    - intros s ms m _ _ Hs. split; [exact Hs|]. exists (t_qbytes eol [m]). split; [|apply t_qbytes_app].
      unfold ts_rem. cbn [ts_queue ts_cur ts_off ts_idx ts_q ts_text]. now rewrite t_qbytes_app, app_assoc.
    - intros s ms maxb scr s' x _ Hs H. destruct (t_do_output_spec eol eol_ne s maxb scr s' x Hs H) as (? & _ & ? & _). auto.
    - intros s ms maxb scr s' x _ Hs H. destruct (t_do_output_spec eol eol_ne s maxb scr s' x Hs H) as (_ & ? & _ & ?). auto.
  Qed.

  (* the receiver decodes lines, whatever their grouping into Messages; the invariant is the one under which a
     read chunk is processed like its bytes one by one; no error state *)
  Lemma text_decoder :
    decoder_laws t_do_input tr_init text_wfm (t_qbytes eol) (@concat bytes) (@concat bytes)
      t_byte (fun r => (tr_text r, tr_cr r)) (fun r => tr_cr r = true -> tr_text r = []) (fun _ => True) (fun _ => False).
  Proof.
    assert (Hn : forall ms c pipe rest, Forall text_wfm ms -> t_qbytes eol ms = c ++ pipe ++ rest -> nul_free pipe).
    { intros ms c pipe rest Hwf Hw. pose proof (mixed_wire_nul_free _ _ (text_mixed_ok ms Hwf)) as Hnf.
      rewrite <- text_wire_mixed, Hw in Hnf.
      apply nul_free_app in Hnf. destruct Hnf as [_ Hnf]. apply nul_free_app in Hnf. tauto. }
    split; auto; try contradiction.
    - exact (@concat_app bytes).
    - intros ms r c maxb scr pipe rest r' o' pipe' Hwf Hw Hinv H.
      destruct (t_do_input_spec _ _ _ _ _ _ _ (Hn _ _ _ _ Hwf Hw) Hinv H) as (x & Hp & Hf & _).
      exists x. split; [exact Hp|]. split; [|exact Hf].
      exact (t_feed_inv x (tr_text r, tr_cr r) (tr_text r', tr_cr r') _ Hinv Hf).
    - intros ms Hwf. destruct (t_feed_mixed _ _ (text_mixed_ok ms Hwf)) as (b & Hf).
      rewrite <- text_wire_mixed, map_fst_uniform in Hf. eauto.
    - intros ms r c maxb scr pipe rest r' o' pipe' Hwf Hw Hinv _ H Hne Hm Hk.
      destruct (t_do_input_spec _ _ _ _ _ _ _ (Hn _ _ _ _ Hwf Hw) Hinv H) as (x & -> & _ & Hb).
      apply app_shorter. intros ->. cbn [app] in *. pose proof (blen_pos _ Hne).
      assert (1 <= c_text_buf_size - 1) by (vm_compute; discriminate). change (blen []) with 0 in Hb. lia.
  Qed.
End TextE2E.

(* a Message of n empty lines over a transport that takes everything: each turn of the send loop writes one
   terminator; [cap_st n i] is the state with line i fully written *)
Definition cap_st (n i : nat) : tsend := mkTS [] (Some (repeat [] n)) (Z.of_nat i) [LF] 1.

Lemma t_out_empty_turn n i k st maxb scr acc :
  ts_cur (ts_pop st) = Some (repeat [] n) -> ts_q (ts_pop st) = [] -> ts_idx (ts_pop st) = (Z.of_nat i - 1)%Z ->
  ((ts_off (ts_pop st) <? 0) || (Z.of_N (blen (ts_text (ts_pop st))) <=? ts_off (ts_pop st)))%Z = true ->
  (i < n)%nat -> 1 <= maxb ->
  t_out_aux (S k) [LF] st maxb (c_MUSCLE_NO_LIMIT :: scr) acc = t_out_aux k [LF] (cap_st n i) (maxb - 1) scr (acc ++ [LF]).
Proof.
  intros Hc Hq Hi Hd Hn Hm. cbn [t_out_aux]. fold (ts_pop st).
  destruct (ts_pop st) as [q cur idx text off]. cbn [ts_cur ts_q ts_idx ts_off ts_text] in *. subst q cur idx.
  rewrite Hd. replace (Z.to_nat (Z.of_nat i - 1 + 1)) with i by lia. rewrite nth_error_repeat by lia.
  unfold t_send. cbn [ts_off ts_text ts_q ts_cur ts_idx app].
  change (0 <? Z.of_N (blen [LF]))%Z with true. cbv iota.
  change (Z.to_N 0) with 0. change (blen [LF] - 0) with 1. rewrite N.min_l by lia.
  change (io_write (take 1 (drop 0 [LF])) (c_MUSCLE_NO_LIMIT :: scr)) with ([LF], scr).
  cbv iota. change (blen [LF]) with 1. change (0 <? 1) with true. cbv iota.
  replace (Z.of_nat i - 1 + 1)%Z with (Z.of_nat i) by lia. reflexivity.
Qed.

Lemma t_out_empty_lines n k : forall i maxb j acc,
  (i + k < n)%nat -> N.of_nat k <= maxb -> (k <= j)%nat ->
  t_out_aux k [LF] (cap_st n i) maxb (repeat c_MUSCLE_NO_LIMIT j) acc = (cap_st n (i + k), acc ++ repeat LF k).
Proof.
  induction k as [|k IH]; intros i maxb j acc Hi Hm Hj.
  - cbn. now rewrite Nat.add_0_r, app_nil_r.
  - destruct j as [|j]; [lia|]. cbn [repeat].
    rewrite (t_out_empty_turn n (S i)), IH, <- app_assoc, Nat.add_succ_r; try reflexivity; try lia.
    cbn [cap_st ts_pop ts_cur ts_idx]. lia.
Qed.

(* the state the recursion cap leaves behind: a Message of cap+1 empty lines, one DoOutput() call over a transport that
   takes everything: the call stops after cap lines with the current line fully written, HasBytesToOutput() must (and does) still say true *)
Lemma text_cap_state_has_bytes :
  let m := repeat ([] : bytes) (S (N.to_nat c_text_max_recurse)) in
  let '(st, w) := t_do_output [LF] (ts_queue ts_init m) c_MUSCLE_NO_LIMIT (repeat c_MUSCLE_NO_LIMIT 2000) in
  blen w = c_text_max_recurse /\ ts_off st = Z.of_N (blen (ts_text st)) /\ ts_has_bytes st = true /\ ts_rem [LF] st <> [].
Proof.
  (* the cap is 1024 turns, the Message has 1025 lines, the script 2000 entries: turn 1 writes line 0, the
     other 1023 turns lines 1..1023, and line 1024 stays behind *)
  cbv zeta. unfold t_do_output.
  change (N.to_nat c_text_max_recurse) with (S 1023).
  change (repeat c_MUSCLE_NO_LIMIT 2000) with (c_MUSCLE_NO_LIMIT :: repeat c_MUSCLE_NO_LIMIT 1999).
  assert (Hbig : 1 <= c_MUSCLE_NO_LIMIT /\ N.of_nat 1023 <= c_MUSCLE_NO_LIMIT - 1) by (vm_compute; split; discriminate).
  assert (Hn : (0 < 1025 /\ 0 + 1023 < 1025 /\ 1023 <= 1999)%nat) by (rewrite <- !Nat.ltb_lt, <- Nat.leb_le; auto).
  rewrite (t_out_empty_turn 1025 0 1023 (ts_queue ts_init (repeat [] 1025)) _ _ _ eq_refl eq_refl eq_refl eq_refl (proj1 Hn) (proj1 Hbig)).
  rewrite (t_out_empty_lines 1025 1023 0 _ 1999 _ (proj1 (proj2 Hn)) (proj2 Hbig) (proj2 (proj2 Hn))).
  vm_compute. repeat split; discriminate.
Qed.

(* ====================================================================== receiver alone, foreign senders (mixed_ok
   streams).  For every sequence of DoInput calls, with any maxBytes and any read scripts, over such a stream:
   what has been delivered is the decoding of the bytes consumed so far, hence a prefix of the lines,
   and all of them once the stream has been consumed. *)
(* a sequence of DoInput calls: (maxBytes, read script) each *)
Fixpoint t_recv_run (st : trecv) (pipe : bytes) (calls : list (N * list N)) : trecv * list (list bytes) * bytes :=
  match calls with
  | [] => (st, [], pipe)
  | (maxb, scr) :: r =>
      let '(st1, o1, p1) := t_do_input st maxb scr pipe in
      let '(st2, o2, p2) := t_recv_run st1 p1 r in (st2, o1 ++ o2, p2)
  end.

Lemma t_recv_run_spec calls : forall st pipe st' outs pipe',
  nul_free pipe -> (tr_cr st = true -> tr_text st = []) ->
  t_recv_run st pipe calls = (st', outs, pipe') ->
  exists x, pipe = x ++ pipe' /\
            t_feed (tr_text st, tr_cr st) x = ((tr_text st', tr_cr st'), concat outs) /\
            (tr_cr st' = true -> tr_text st' = []).
Proof.
  induction calls as [|[maxb scr] r IH]; intros st pipe st' outs pipe' Hn Hinv H; cbn [t_recv_run] in H.
  - inversion H; subst. exists []. cbn. auto.
  - destruct (t_do_input st maxb scr pipe) as [[st1 o1] p1] eqn:E1.
    destruct (t_recv_run st1 p1 r) as [[st2 o2] p2] eqn:E2. inversion H; subst; clear H.
    destruct (t_do_input_spec _ _ _ _ _ _ _ Hn Hinv E1) as (x1 & Hp1 & Hf1 & _).
    assert (Hinv1 : tr_cr st1 = true -> tr_text st1 = []).
    { apply (t_feed_inv x1 (tr_text st, tr_cr st) (tr_text st1, tr_cr st1) (concat o1)); auto. }
    assert (Hn1 : nul_free p1) by (rewrite Hp1 in Hn; apply nul_free_app in Hn; tauto).
    destruct (IH _ _ _ _ _ Hn1 Hinv1 E2) as (x2 & Hp2 & Hf2 & Hinv2).
    exists (x1 ++ x2). split; [rewrite Hp1, Hp2; now rewrite app_assoc|]. split; auto.
    rewrite t_feed_app, Hf1, Hf2, concat_app. reflexivity.
Qed.

Theorem text_mixed_terminators (lts : list (bytes * bytes)) (calls : list (N * list N)) :
  mixed_ok false lts ->
  let '(st', outs, pipe') := t_recv_run tr_init (mixed_wire lts) calls in
  (exists tl, map fst lts = concat outs ++ tl) /\
  (pipe' = [] -> concat outs = map fst lts /\ tr_text st' = []).
Proof.
  intros Hok.
  destruct (t_recv_run tr_init (mixed_wire lts) calls) as [[st' outs] pipe'] eqn:E.
  destruct (t_recv_run_spec calls tr_init _ _ _ _ (mixed_wire_nul_free lts false Hok) ltac:(discriminate) E) as (x & Hp & Hf & _).
  destruct (t_feed_mixed lts false Hok) as (b' & Hall).
  change (tr_text tr_init, tr_cr tr_init) with (@nil N, false) in Hf. unfold bytes, byte in *.
  split.
  - rewrite Hp, t_feed_app, Hf in Hall.
    set (q := t_feed _ pipe') in Hall. destruct q as [s2 o2]. inversion Hall. eauto.
  - intros ->. rewrite app_nil_r in Hp. subst x. rewrite Hall in Hf. inversion Hf. auto.
Qed.
