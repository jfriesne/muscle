(* C03 -- the C "mini" gateway (lang/c/minimessage/MiniMessageGateway.c) talking to the C++ MessageIOGateway
   (DEFAULT encoding), in both directions: the mini sender's bytes are exactly the frames the C++ receiver
   decodes, the mini receive loop refines its byte-at-a-time machine and decodes the frames the C++ sender
   builds; the mini sender laws and the mini decoder laws (TransportProofs). *)
From Coq Require Import List NArith ZArith Bool Lia ZifyBool.
From Muscle Require Import Gen.Consts Gw.GwBase Gw.GwLemmas Gw.FrameModel Gw.FrameProofs Gw.FrameDefault
  Gw.MiniModel Gw.TransportProofs.
Import ListNotations.
Local Open Scope N_scope.

Lemma mg_frame_is_d_flat m : mg_frame m = snd (d_flat tt m).
Proof. reflexivity. Qed.

Lemma blen_mg_frame m : blen (mg_frame m) = mg_hs + blen m.
Proof. unfold mg_frame, mg_hs. rewrite !blen_app, !blen_le32. lia. Qed.

(* ====================================================================== sender *)
Definition ms_rem (st : msend) : bytes :=
  match mg_bufs st with [] => [] | b :: r => drop (mg_off st) b ++ concat r end.
Definition ms_wf (st : msend) : Prop :=
  match mg_bufs st with [] => mg_off st = 0 | b :: _ => mg_off st < blen b end /\
  Forall (fun b => 0 < blen b) (mg_bufs st).

Lemma mg_has_bytes_rem (st : msend) : mg_has_bytes st = false -> ms_rem st = [].
Proof. unfold mg_has_bytes, ms_rem. destruct (mg_bufs st); [reflexivity|discriminate]. Qed.

Lemma mg_out_eq scr st maxb acc :
  mg_out scr st maxb acc =
  match mg_bufs st with
  | [] => (st, acc)
  | b :: r =>
      let tosend := N.min (blen b - mg_off st) maxb in
      if tosend =? 0 then (st, acc) else
      let '(x, _) := io_write (take tosend (drop (mg_off st) b)) scr in
      let st' := if mg_off st + blen x =? blen b then mkMS r 0 else mkMS (b :: r) (mg_off st + blen x) in
      if blen x <? tosend then (st', acc ++ x) else
      match scr with [] => (st', acc ++ x) | _ :: scr' => mg_out scr' st' (maxb - blen x) (acc ++ x) end
  end.
Proof. destruct scr; reflexivity. Qed.

Definition ms_post (st : msend) (acc : bytes) (maxb : N) (scr : list N) (st' : msend) (acc' : bytes) : Prop :=
  ms_wf st' /\ exists x, acc' = acc ++ x /\ ms_rem st = x ++ ms_rem st' /\
    (ms_rem st <> [] -> 1 <= maxb -> 1 <= io_k scr -> x <> []).

(* one turn of the send loop, whatever the rest of the loop does *)
Lemma mg_out_turn scr st maxb acc st' acc' :
  (forall st1 maxb1 acc1, ms_wf st1 ->
      match scr with [] => (st1, acc1) | _ :: scr' => mg_out scr' st1 maxb1 acc1 end = (st', acc') ->
      ms_wf st' /\ exists x, acc' = acc1 ++ x /\ ms_rem st1 = x ++ ms_rem st') ->
  ms_wf st -> mg_out scr st maxb acc = (st', acc') -> ms_post st acc maxb scr st' acc'.
Proof.
  intros Hrec Hwf H. rewrite mg_out_eq in H.
  assert (Hstop : (ms_rem st <> [] -> 1 <= maxb -> False) -> ms_post st acc maxb scr st acc).
  { intros Hno. split; [exact Hwf|]. exists []. rewrite app_nil_r. repeat split; auto. }
  destruct Hwf as [Hoff Hall].
  destruct (mg_bufs st) as [|b r] eqn:Eb; [inversion H; subst; apply Hstop; unfold ms_rem; rewrite Eb; congruence|].
  cbv zeta in H. inversion Hall as [|? ? Hb0 Hr0]; subst.
  destruct (N.min (blen b - mg_off st) maxb =? 0) eqn:E0; [inversion H; subst; apply Hstop; lia|].
  destruct (io_write (take (N.min (blen b - mg_off st) maxb) (drop (mg_off st) b)) scr) as [x s1] eqn:Ew.
  apply io_write_take in Ew. destruct Ew as (Hd & Hbx & _). rewrite blen_drop in Hbx.
  set (st1 := if mg_off st + blen x =? blen b then mkMS r 0 else mkMS (b :: r) (mg_off st + blen x)) in *.
  assert (Hwf1 : ms_wf st1).
  { subst st1. destruct (mg_off st + blen x =? blen b) eqn:Ef; split; cbn [mg_bufs mg_off]; auto; [|lia].
    destruct r as [|b2 r2]; auto. inversion Hr0; auto. }
  assert (Hrem1 : ms_rem st = x ++ ms_rem st1).
  { unfold ms_rem. rewrite Eb. subst st1. rewrite Hd at 1. rewrite drop_drop, <- app_assoc.
    destruct (mg_off st + blen x =? blen b) eqn:Ef; cbn [mg_bufs mg_off]; [|reflexivity].
    rewrite drop_all by lia. destruct r; reflexivity. }
  assert (Hx : 1 <= maxb -> 1 <= io_k scr -> forall y : bytes, x ++ y <> []).
  { intros H1 H2 y E. apply app_eq_nil in E. destruct E as [-> _]. change (blen []) with 0 in Hbx. lia. }
  destruct (blen x <? N.min (blen b - mg_off st) maxb) eqn:Eshort.
  - inversion H; subst. split; [exact Hwf1|]. exists x. repeat split; auto.
    intros _ H1 H2. rewrite <- (app_nil_r x). now apply Hx.
  - apply Hrec in H; [|exact Hwf1]. destruct H as (Hwf' & y & Hacc & Hrem). split; [exact Hwf'|].
    exists (x ++ y). split; [now rewrite Hacc, app_assoc|]. split; [now rewrite Hrem1, Hrem, app_assoc|].
    intros _ H1 H2. now apply Hx.
Qed.

Lemma mg_out_spec scr : forall st maxb acc st' acc',
  ms_wf st -> mg_out scr st maxb acc = (st', acc') -> ms_post st acc maxb scr st' acc'.
Proof.
  induction scr as [|k scr IH]; intros st maxb acc st' acc' Hwf H; apply mg_out_turn in H; auto;
    intros st1 maxb1 acc1 H1 E.
  - inversion E; subst. split; [exact H1|]. exists []. now rewrite app_nil_r.
  - destruct (IH _ _ _ _ _ H1 E) as (Hwf' & x & Ha & Hr & _). eauto.
Qed.

Lemma ms_sender (wfm : bytes -> Prop) :
  sender_laws ms_queue mg_do_output ms_init wfm (f_wire bytes unit d_flat tt) ms_rem (fun _ => 0%nat) (fun s _ => ms_wf s).
Proof.
  split.
  - reflexivity.
  - split; [split; [reflexivity|constructor]|reflexivity].
  - intros s ms m _ _ [Hoff Hall].
    assert (Hfp : 0 < blen (mg_frame m)) by (rewrite blen_mg_frame; unfold mg_hs; lia).
    split.
    + split; cbn [ms_queue mg_bufs mg_off].
      * destruct (mg_bufs s); cbn [app]; [lia|exact Hoff].
      * apply Forall_app; split; auto.
    + exists (mg_frame m). split.
      * unfold ms_rem. cbn [ms_queue mg_bufs mg_off]. destruct (mg_bufs s) as [|b r]; cbn [app].
        -- rewrite Hoff, drop_0. cbn [concat]. now rewrite app_nil_r.
        -- rewrite concat_app. cbn [concat]. now rewrite app_nil_r, app_assoc.
      * unfold f_wire. rewrite wire_from_app. cbn [wire_from]. now rewrite app_nil_r.
  - intros s ms maxb scr s' x _ Hwf H. destruct (mg_out_spec _ _ _ _ _ _ Hwf H) as (Hwf' & y & Hy & Hrem & _).
    cbn in Hy. subst y. auto.
  - intros s ms maxb scr s' x _ Hwf H. destruct (mg_out_spec _ _ _ _ _ _ Hwf H) as (_ & y & Hy & _ & Hpr).
    cbn in Hy. subst y. auto.
Qed.

(* ====================================================================== receiver *)
Definition with_got (st : mrecv) (g : bytes) : mrecv := mkMR g (mr_max st) (mr_size st).
Definition mg_complete2 (st : mrecv) : mrecv * list bytes := let '(st2, o, _) := mg_complete st in (st2, o).

Lemma mg_feed_app a st b :
  mg_feed st (a ++ b) = let '(st1, o1) := mg_feed st a in let '(st2, o2) := mg_feed st1 b in (st2, o1 ++ o2).
Proof. exact (bfeed_app mg_byte a st b). Qed.

(* a full buffer that was not consumed is where the C code stays after an error *)
Lemma mg_byte_stuck st b : mr_max st <= blen (mr_got st) -> mg_byte st b = (st, []).
Proof. intros H. unfold mg_byte. assert (E : (mr_max st <=? blen (mr_got st)) = true) by lia. now rewrite E. Qed.

Lemma mg_byte_got st g b :
  mg_byte (with_got st g) b =
  if mr_max st <=? blen g then (with_got st g, [])
  else if blen g + 1 =? mr_max st then mg_complete2 (with_got st (g ++ [b])) else (with_got st (g ++ [b]), []).
Proof. reflexivity. Qed.

Lemma mg_feed_partial x st :
  blen (mr_got st) + blen x < mr_max st -> mg_feed st x = (with_got st (mr_got st ++ x), []).
Proof.
  intros H. replace st with (with_got st (mr_got st)) at 1 by (destruct st; reflexivity).
  apply (bfeed_below mg_byte (with_got st) 0 (mr_max st)); try lia.
  intros g b _ Hg. rewrite mg_byte_got.
  assert (E1 : (mr_max st <=? blen g) = false) by lia. assert (E2 : (blen g + 1 =? mr_max st) = false) by lia. now rewrite E1, E2.
Qed.

Lemma mg_feed_exact x st :
  x <> [] -> blen (mr_got st) + blen x = mr_max st -> mg_feed st x = mg_complete2 (with_got st (mr_got st ++ x)).
Proof.
  intros Hx H. replace st with (with_got st (mr_got st)) at 1 by (destruct st; reflexivity).
  apply (bfeed_reach mg_byte (with_got st) (fun g => mg_complete2 (with_got st g)) 0 (mr_max st)); auto; try lia;
    intros g b _ Hg; rewrite mg_byte_got.
  - assert (E1 : (mr_max st <=? blen g) = false) by lia. assert (E2 : (blen g + 1 =? mr_max st) = false) by lia. now rewrite E1, E2.
  - assert (E1 : (mr_max st <=? blen g) = false) by lia. assert (E2 : (blen g + 1 =? mr_max st) = true) by lia. now rewrite E1, E2.
Qed.

Lemma mg_complete_err st st2 o : mg_complete st = (st2, o, true) -> o = [].
Proof.
  unfold mg_complete. destruct (mg_hs <? blen (mr_got st)); [intros H; inversion H|].
  destruct (_ || _); [intros H; inversion H; auto|].
  destruct (two32 <=? _); [intros H; inversion H; auto|].
  destruct (mr_size st <? _); [destruct (two32 <=? _)|]; intros H; inversion H; auto.
Qed.

Lemma mg_in_eq scr st maxb pipe :
  mg_in scr st maxb pipe =
  let torecv := N.min (mr_max st - blen (mr_got st)) maxb in
  if torecv =? 0 then (st, [], pipe, false) else
  let '(x, pipe', _) := io_read torecv scr pipe in
  let st1 := mkMR (mr_got st ++ x) (mr_max st) (mr_size st) in
  let '(st2, o, err) := if blen (mr_got st) + blen x =? mr_max st then mg_complete st1 else (st1, [], false) in
  if err then (st2, [], pipe', true)
  else match o with
       | _ :: _ => (st2, o, pipe', false)
       | [] => if blen x <? torecv then (st2, [], pipe', false) else
               match scr with [] => (st2, [], pipe', false) | _ :: scr' => mg_in scr' st2 (maxb - blen x) pipe' end
       end.
Proof. destruct scr; reflexivity. Qed.

(* a receive call, or a run of its loop, = feeding the bytes it took to the byte machine; one that is allowed
   to move a byte, with room in the buffer, does *)
Definition mg_in_post (st : mrecv) (maxb : N) (scr : list N) (pipe : bytes) (st' : mrecv) (o : list bytes) (pipe' : bytes) : Prop :=
  exists x, pipe = x ++ pipe' /\ mg_feed st x = (st', o) /\
    (blen (mr_got st) < mr_max st -> 1 <= maxb -> 1 <= io_k scr -> pipe <> [] -> x <> []).

Lemma mg_in_turn scr st maxb pipe st' o pipe' err :
  (forall st2 maxb2 pipe2,
      match scr with [] => (st2, [], pipe2, false) | _ :: scr' => mg_in scr' st2 maxb2 pipe2 end = (st', o, pipe', err) ->
      exists y, pipe2 = y ++ pipe' /\ mg_feed st2 y = (st', o)) ->
  mg_in scr st maxb pipe = (st', o, pipe', err) -> mg_in_post st maxb scr pipe st' o pipe'.
Proof.
  intros Hrec H. rewrite mg_in_eq in H. cbv zeta in H.
  destruct (N.min (mr_max st - blen (mr_got st)) maxb =? 0) eqn:E0.
  { inversion H; subst. exists []. repeat split; auto. intros; lia. }
  destruct (io_read (N.min (mr_max st - blen (mr_got st)) maxb) scr pipe) as [[x p1] s1] eqn:Er.
  apply io_read_spec in Er. destruct Er as (Hp & Hb & _).
  fold (with_got st (mr_got st ++ x)) in H.
  assert (Hxne : blen (mr_got st) < mr_max st -> 1 <= maxb -> 1 <= io_k scr -> pipe <> [] -> forall y : bytes, x ++ y <> []).
  { intros H1 H2 H3 H4 y E. apply app_eq_nil in E. destruct E as [-> _]. pose proof (blen_pos _ H4). change (blen []) with 0 in Hb. lia. }
  assert (Hone : forall st2, mg_feed st x = (st2, o) -> (st2, o, p1) = (st', o, pipe') -> mg_in_post st maxb scr pipe st' o pipe').
  { intros st2 Hf E. inversion E; subst. exists x. repeat split; auto. intros H1 H2 H3 H4. rewrite <- (app_nil_r x). now apply Hxne. }
  assert (Hmore : forall st2 maxb2, mg_feed st x = (st2, []) ->
            match scr with [] => (st2, [], p1, false) | _ :: scr' => mg_in scr' st2 maxb2 p1 end = (st', o, pipe', err) ->
            mg_in_post st maxb scr pipe st' o pipe').
  { intros st2 maxb2 Hf E. apply Hrec in E. destruct E as (y & Hp2 & Hf2).
    exists (x ++ y). split; [rewrite Hp, Hp2; now rewrite app_assoc|]. split; [now rewrite mg_feed_app, Hf, Hf2|].
    intros H1 H2 H3 H4. now apply Hxne. }
  destruct (blen (mr_got st) + blen x =? mr_max st) eqn:Efull.
  - assert (Hx0 : x <> []) by (intros ->; change (blen []) with 0 in *; lia).
    pose proof (mg_feed_exact x st Hx0 ltac:(lia)) as Hf. unfold mg_complete2 in Hf.
    destruct (mg_complete (with_got st (mr_got st ++ x))) as [[st2 o2] [|]] eqn:Ec.
    + rewrite (mg_complete_err _ _ _ Ec) in Hf. inversion H; subst. now apply (Hone st').
    + destruct o2 as [|m o2'].
      * assert (E3 : (blen x <? N.min (mr_max st - blen (mr_got st)) maxb) = false) by lia. rewrite E3 in H.
        now apply (Hmore st2 (maxb - blen x)).
      * inversion H; subst. now apply (Hone st').
  - pose proof (mg_feed_partial x st ltac:(lia)) as Hf.
    destruct (blen x <? N.min (mr_max st - blen (mr_got st)) maxb) eqn:Eshort.
    + inversion H; subst. now apply (Hone (with_got st (mr_got st ++ x))).
    + now apply (Hmore (with_got st (mr_got st ++ x)) (maxb - blen x)).
Qed.

Lemma mg_in_spec scr : forall st maxb pipe st' o pipe' err,
  mg_in scr st maxb pipe = (st', o, pipe', err) -> mg_in_post st maxb scr pipe st' o pipe'.
Proof.
  induction scr as [|k scr IH]; intros st maxb pipe st' o pipe' err H; apply mg_in_turn in H; auto;
    intros st2 maxb2 pipe2 E.
  - inversion E; subst. exists []. auto.
  - destruct (IH _ _ _ _ _ _ _ E) as (y & Hp & Hf & _). eauto.
Qed.

Lemma mg_do_input_spec st maxb scr pipe st' o pipe' :
  mg_do_input st maxb scr pipe = (st', o, pipe') -> mg_in_post st maxb scr pipe st' o pipe'.
Proof.
  unfold mg_do_input. destruct (mg_in scr st maxb pipe) as [[[st2 o2] p2] e] eqn:E.
  intros H. inversion H; subst. exact (mg_in_spec _ _ _ _ _ _ _ _ E).
Qed.

(* ---- decoding a frame *)
Definition mg_wfm (m : bytes) : Prop := 1 <= blen m /\ 2 * (blen m + mg_hs) < two32.
Definition mr_idle (st : mrecv) : Prop := mr_got st = [] /\ mr_max st = mg_hs.

Lemma mg_feed_frame st m : mr_idle st -> mg_wfm m ->
  exists st', mg_feed st (mg_frame m) = (st', [m]) /\ mr_idle st'.
Proof.
  intros [Hg Hm] [H1 H2]. destruct st as [got mx sz]. cbn in Hg, Hm. subst got mx.
  unfold mg_frame. rewrite app_assoc, mg_feed_app.
  set (hdr := le32 (blen m) ++ le32 c_MUSCLE_MESSAGE_ENCODING_DEFAULT).
  assert (Hhl : blen hdr = mg_hs) by reflexivity.
  rewrite (mg_feed_exact hdr (mkMR [] mg_hs sz)); [|discriminate|exact Hhl].
  unfold mg_complete2, with_got. cbn [mr_got mr_max mr_size app]. unfold mg_complete. cbn [mr_got mr_size mr_max].
  rewrite Hhl. assert (E0 : (mg_hs <? mg_hs) = false) by lia. rewrite E0.
  destruct (frame_head (blen m) c_MUSCLE_MESSAGE_ENCODING_DEFAULT []) as (Eb & Ee & _);
    [unfold two32, mg_hs in *; lia|exact enc_default_small|]. rewrite app_nil_r in Eb, Ee. fold hdr in Eb, Ee.
  rewrite Eb, Ee, N.eqb_refl. assert (E1 : (blen m =? 0) = false) by lia. rewrite E1. cbn [orb negb].
  assert (E2 : (two32 <=? blen m + mg_hs) = false) by lia. rewrite E2.
  assert (Hbody : forall sz', mg_feed (mkMR hdr (blen m + mg_hs) sz') m =
                    (mkMR [] mg_hs (if mg_shrink <? sz' then mg_shrink else sz'), [m])).
  { intros sz'. assert (Hmne : m <> []) by (intros ->; change (blen []) with 0 in H1; lia).
    rewrite (mg_feed_exact m (mkMR hdr (blen m + mg_hs) sz') Hmne); [|cbn [mr_got mr_max]; rewrite Hhl; lia].
    unfold mg_complete2, with_got. cbn [mr_got mr_max mr_size]. unfold mg_complete. cbn [mr_got mr_size mr_max].
    rewrite blen_app, Hhl. assert (E3 : (mg_hs <? mg_hs + blen m) = true) by lia. rewrite E3.
    change mg_hs with (blen hdr) at 2. rewrite drop_app_exact. reflexivity. }
  destruct (sz <? blen m + mg_hs).
  - assert (E3 : (two32 <=? 2 * (blen m + mg_hs)) = false) by lia. rewrite E3.
    rewrite Hbody. eexists. split; [reflexivity|split; reflexivity].
  - rewrite Hbody. eexists. split; [reflexivity|split; reflexivity].
Qed.

Lemma mg_feed_wire ms : Forall mg_wfm ms -> forall st, mr_idle st ->
  exists st', mr_idle st' /\ mg_feed st (f_wire bytes unit d_flat tt ms) = (st', ms).
Proof.
  unfold f_wire. induction 1 as [|m t Hm _ IH]; intros st Hi; cbn [wire_from].
  - exists st. auto.
  - destruct (mg_feed_frame st m Hi Hm) as (st1 & Hf1 & Hi1).
    destruct (IH st1 Hi1) as (st2 & Hi2 & Hf2). exists st2. split; auto.
    change (snd (d_flat tt m)) with (mg_frame m). change (fst (d_flat tt m)) with tt.
    rewrite mg_feed_app, Hf1, Hf2. reflexivity.
Qed.

(* the mini receiver decodes the C++ sender's wire: final = between two frames, dead = full buffer *)
Lemma mg_decoder :
  decoder_laws mg_do_input mr_init mg_wfm (f_wire bytes unit d_flat tt) (fun ms : list bytes => ms) (fun o : list bytes => o)
    mg_byte (fun r => r) (fun _ => True) mr_idle (fun q => mr_max q <= blen (mr_got q)).
Proof.
  split; auto.
  - intros ms r c maxb scr pipe rest r' o' pipe' _ _ _ H.
    destruct (mg_do_input_spec _ _ _ _ _ _ _ H) as (x & Hp & Hf & _). eauto.
  - intros ms Hwf. apply mg_feed_wire; auto. split; reflexivity.
  - intros q Hq b. now apply mg_byte_stuck.
  - intros q [Hg Hm]. rewrite Hg, Hm. cbn. unfold mg_hs. lia.
  - intros ms r c maxb scr pipe rest r' o' pipe' _ _ _ Hns H Hne Hm Hk.
    destruct (mg_do_input_spec _ _ _ _ _ _ _ H) as (x & -> & _ & Hx). apply app_shorter, Hx; auto. lia.
Qed.

(* ====================================================================== the two pairs: mini sender -> C++ receiver
   (laws: ms_sender with FrameDefault.d_decoder) and C++ sender -> mini receiver (FrameDefault.d_sender with mg_decoder) *)
Definition m2c_sys0 := @sys0 bytes bytes msend (frecv unit) ms_init (fr_init tt).
Definition c2m_sys0 := @sys0 bytes bytes (fsend bytes unit) mrecv (fs_init tt) mr_init.
