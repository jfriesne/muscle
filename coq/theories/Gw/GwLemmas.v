(* C03 -- list / byte-count / transport-script lemmas shared by the gateway proofs. *)
From Coq Require Import List NArith ZArith Lia.
From Muscle Require Import Gw.GwBase.
Import ListNotations.
Local Open Scope N_scope.

Lemma blen_nil : blen [] = 0.
Proof. reflexivity. Qed.

Lemma blen_app a b : blen (a ++ b) = blen a + blen b.
Proof. unfold blen. rewrite app_length. lia. Qed.

Lemma blen_cons x a : blen (x :: a) = 1 + blen a.
Proof. unfold blen. cbn [length]. lia. Qed.

Lemma blen_0 a : blen a = 0 -> a = [].
Proof. destruct a; auto. unfold blen; cbn; lia. Qed.

Lemma blen_pos a : a <> [] -> 0 < blen a.
Proof. destruct a; [congruence|]. intros _. rewrite blen_cons. lia. Qed.

Lemma take_drop n b : take n b ++ drop n b = b.
Proof. apply firstn_skipn. Qed.

Lemma blen_take n b : blen (take n b) = N.min n (blen b).
Proof. unfold blen, take. rewrite firstn_length. lia. Qed.

Lemma blen_drop n b : blen (drop n b) = blen b - n.
Proof. unfold blen, drop. rewrite skipn_length. lia. Qed.

Lemma take_all n b : blen b <= n -> take n b = b.
Proof. intros H. unfold take. apply firstn_all2. unfold blen in H. lia. Qed.

Lemma drop_all n b : blen b <= n -> drop n b = [].
Proof. intros H. unfold drop. apply skipn_all2. unfold blen in H. lia. Qed.

Lemma take_0 b : take 0 b = [].
Proof. reflexivity. Qed.

Lemma drop_0 b : drop 0 b = b.
Proof. reflexivity. Qed.

Lemma take_app_exact a b : take (blen a) (a ++ b) = a.
Proof.
  unfold take, blen. rewrite Nat2N.id.
  rewrite firstn_app, Nat.sub_diag, firstn_all. cbn. apply app_nil_r.
Qed.

Lemma drop_app_exact a b : drop (blen a) (a ++ b) = b.
Proof.
  unfold drop, blen. rewrite Nat2N.id.
  rewrite skipn_app, Nat.sub_diag, skipn_all. reflexivity.
Qed.

Lemma skipn_skipn' {A} (n m : nat) (l : list A) : skipn n (skipn m l) = skipn (m + n) l.
Proof.
  revert l. induction m as [|m IH]; intros l; cbn; auto.
  destruct l; cbn; [now destruct n|]. apply IH.
Qed.

Lemma drop_drop n m b : drop n (drop m b) = drop (m + n) b.
Proof.
  unfold drop. rewrite skipn_skipn'. f_equal. lia.
Qed.

(* a prefix of a given length taken out of the tail at an offset *)
Lemma drop_take_split off n b :
  drop off b = take n (drop off b) ++ drop (off + n) b.
Proof. rewrite <- drop_drop. symmetry. apply take_drop. Qed.

(* ---- transport script *)
Lemma io_read_spec a scr pipe x pipe' scr' :
  io_read a scr pipe = (x, pipe', scr') ->
  pipe = x ++ pipe' /\ blen x = N.min a (N.min (io_k scr) (blen pipe)) /\ scr' = io_tl scr.
Proof.
  unfold io_read. intros H. inversion H; subst; clear H.
  split; [symmetry; apply take_drop|]. split; auto.
  rewrite blen_take. lia.
Qed.

Lemma io_write_spec data scr x scr' :
  io_write data scr = (x, scr') ->
  data = x ++ drop (blen x) data /\ blen x = N.min (blen data) (io_k scr) /\ scr' = io_tl scr.
Proof.
  unfold io_write. intros H. inversion H; subst; clear H.
  split; [|split; auto].
  - rewrite blen_take.
    replace (N.min (N.min (blen data) (io_k scr)) (blen data)) with (N.min (blen data) (io_k scr)) by lia.
    symmetry; apply take_drop.
  - rewrite blen_take. lia.
Qed.

Lemma io_tl_length scr : (length (io_tl scr) <= length scr)%nat.
Proof. destruct scr; cbn; lia. Qed.

Lemma io_tl_shorter scr : 1 <= io_k scr -> (length (io_tl scr) < length scr)%nat.
Proof. destruct scr; cbn; lia. Qed.

Lemma app_shorter {A} (x p : list A) : x <> [] -> (length p < length (x ++ p))%nat.
Proof. destruct x; [contradiction|]. intros _. rewrite app_length. cbn. lia. Qed.

Lemma io_k_nil : io_k [] = 0.
Proof. reflexivity. Qed.

(* ---- little-endian words *)
Lemma rd32_le32 n rest : n < two32 -> rd32 (le32 n ++ rest) = n.
Proof.
  intros H. unfold le32, rd32, u32, two32 in *. cbn [app].
  assert (E : n mod 256 + 256 * ((n / 256) mod 256) + 65536 * ((n / 65536) mod 256) + 16777216 * ((n / 16777216) mod 256) = n).
  { replace (n / 65536) with (n / 256 / 256) by (rewrite N.div_div by lia; reflexivity).
    replace (n / 16777216) with (n / 256 / 256 / 256) by (rewrite !N.div_div by lia; reflexivity).
    pose proof (N.div_mod n 256 ltac:(lia)) as H0.
    pose proof (N.div_mod (n / 256) 256 ltac:(lia)) as H1.
    pose proof (N.div_mod (n / 256 / 256) 256 ltac:(lia)) as H2.
    pose proof (N.div_mod (n / 256 / 256 / 256) 256 ltac:(lia)) as H3.
    assert (H4 : n / 256 / 256 / 256 / 256 = 0).
    { rewrite !N.div_div by lia. apply N.div_small. exact H. }
    rewrite H4 in H3.
    set (q1 := n / 256) in *. set (q2 := q1 / 256) in *. set (q3 := q2 / 256) in *.
    set (a := n mod 256) in *. set (b := q1 mod 256) in *.
    set (c := q2 mod 256) in *. set (d := q3 mod 256) in *.
    clearbody a b c d q3. clearbody q2. clearbody q1. lia. }
  rewrite E. apply N.mod_small. exact H.
Qed.

Lemma blen_le32 n : blen (le32 n) = 4.
Proof. reflexivity. Qed.

Lemma length_le32 n : length (le32 n) = 4%nat.
Proof. reflexivity. Qed.

Lemma take_take m n b : take m (take n b) = take (N.min m n) b.
Proof.
  unfold take. rewrite firstn_firstn. f_equal. lia.
Qed.

Lemma io_write_take n d scr x scr' :
  io_write (take n d) scr = (x, scr') ->
  d = x ++ drop (blen x) d /\ blen x = N.min (N.min n (blen d)) (io_k scr) /\ scr' = io_tl scr.
Proof.
  unfold io_write. intros H. inversion H; subst; clear H.
  rewrite take_take, !blen_take.
  split; [|split; auto].
  - replace (N.min (N.min (N.min (N.min n (blen d)) (io_k scr)) n) (blen d))
      with (N.min (N.min (N.min n (blen d)) (io_k scr)) n) by lia.
    symmetry. apply take_drop.
  - lia.
Qed.

Lemma skipn_nth_error {A} (l : list A) n c : nth_error l n = Some c -> skipn n l = c :: skipn (S n) l.
Proof.
  revert l. induction n as [|n IH]; intros [|a l] H; cbn in *; try discriminate.
  - now inversion H.
  - now apply IH.
Qed.

Lemma skipn_nth_none {A} (l : list A) n : nth_error l n = None -> skipn n l = [].
Proof. intros H. apply skipn_all2. now apply nth_error_None. Qed.

Lemma concat_nonempty_head (cs : list bytes) :
  Forall (fun c => c <> []) cs -> concat cs = [] -> cs = [].
Proof.
  destruct cs as [|c t]; auto. intros Hf Hc. inversion Hf; subst. cbn in Hc.
  apply app_eq_nil in Hc. destruct Hc; contradiction.
Qed.
