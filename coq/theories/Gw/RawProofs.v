(* C03 -- proofs about the raw gateway model: the sender (shared with SLIP through [xform]),
   the two receive modes, and the receiver lemmas with which the raw gateway stands on the transport
   theorem. *)
From Coq Require Import List NArith ZArith Bool Lia ZifyBool.
From Muscle Require Import Gen.Consts Gw.GwBase Gw.GwLemmas Gw.RawModel Gw.TransportProofs.
Import ListNotations.
Local Open Scope N_scope.

Local Arguments skipn : simpl never.
Local Arguments firstn : simpl never.
Local Arguments nth : simpl never.

Definition nonempty (c : bytes) : Prop := c <> [].

Section RawSend.
  Variable xform : list bytes -> list bytes.
  Hypothesis xform_ne : forall m, Forall nonempty (xform m).

  Definition rs_wf (st : rsend) : Prop :=
    match rs_cur st with
    | None => True
    | Some cs =>
        Forall nonempty cs /\
        (((rs_off st < 0)%Z /\ rs_idx st = (-1)%Z) \/
         ((0 <= rs_idx st < Z.of_nat (length cs))%Z /\
          rs_len st = Z.of_N (blen (nth (Z.to_nat (rs_idx st)) cs [])) /\
          (0 <= rs_off st <= rs_len st)%Z))
    end.

  Definition rs_qbytes (q : list (list bytes)) : bytes := concat (map (fun m => concat (xform m)) q).

  Definition rs_rem (st : rsend) : bytes :=
    match rs_cur st with
    | None => []
    | Some cs =>
        if (rs_off st <? 0)%Z then concat cs
        else drop (Z.to_N (rs_off st)) (nth (Z.to_nat (rs_idx st)) cs [])
             ++ concat (skipn (S (Z.to_nat (rs_idx st))) cs)
    end ++ rs_qbytes (rs_q st).

  Lemma rs_has_bytes_rem (st : rsend) : rs_has_bytes st = false -> rs_rem st = [].
  Proof.
    unfold rs_has_bytes, rs_rem. destruct (rs_cur st); [discriminate|].
    destruct (rs_q st); [reflexivity|discriminate].
  Qed.

  Lemma rs_qbytes_cons m q : rs_qbytes (m :: q) = concat (xform m) ++ rs_qbytes q.
  Proof. reflexivity. Qed.

  Lemma rs_qbytes_app q1 q2 : rs_qbytes (q1 ++ q2) = rs_qbytes q1 ++ rs_qbytes q2.
  Proof. unfold rs_qbytes. now rewrite map_app, concat_app. Qed.

  (* Messages not yet finished: the fuel a call needs beside its script *)
  Definition rs_m (st : rsend) : nat :=
    (length (rs_q st) + match rs_cur st with Some _ => 1 | None => 0 end)%nat.

  (* lines 37-44: pop the next Message if there is no current one *)
  Definition rs_pop (st : rsend) : rsend :=
    match rs_cur st with
    | Some _ => st
    | None => match rs_q st with
              | [] => mkRS [] None (-1) (-1) (-1)
              | m :: q => mkRS q (Some (xform m)) (-1) (-1) (-1)
              end
    end.

  Lemma rs_pop_spec st : rs_wf st ->
    rs_wf (rs_pop st) /\ rs_rem (rs_pop st) = rs_rem st /\ (rs_m (rs_pop st) <= rs_m st)%nat /\
    (rs_cur (rs_pop st) = None -> rs_rem st = []).
  Proof.
    intros Hwf. unfold rs_pop. destruct (rs_cur st) eqn:Ec; [repeat split; auto; congruence|].
    destruct (rs_q st) as [|m q] eqn:Eq; unfold rs_wf, rs_rem, rs_m; cbn [rs_cur rs_q rs_off rs_idx]; rewrite ?Ec, ?Eq.
    - repeat split; auto.
    - repeat split; [apply xform_ne|left; lia|cbn; lia|discriminate].
  Qed.

  (* the current Message is finished: no chunk at the next index *)
  Lemma rs_rem_done st cs :
    rs_wf st -> rs_cur st = Some cs -> ((rs_off st <? 0) || (rs_len st <=? rs_off st))%Z = true ->
    nth_error cs (Z.to_nat (rs_idx st + 1)) = None ->
    rs_rem st = rs_qbytes (rs_q st).
  Proof.
    unfold rs_wf, rs_rem. intros Hwf Ec Esel En. rewrite Ec in *.
    destruct Hwf as [_ [[Hoff Hi]|[[Hi1 Hi2] [Hlen Hoff]]]].
    - assert (E : (rs_off st <? 0)%Z = true) by lia. rewrite E.
      rewrite Hi in En. change (Z.to_nat (-1 + 1)) with 0%nat in En. destruct cs; [reflexivity|discriminate].
    - assert (E : (rs_off st <? 0)%Z = false) by lia. rewrite E.
      rewrite drop_all by (replace (rs_off st) with (rs_len st) by lia; rewrite Hlen; lia). cbn [app].
      replace (S (Z.to_nat (rs_idx st))) with (Z.to_nat (rs_idx st + 1)) by lia.
      now rewrite (skipn_nth_none _ _ En).
  Qed.

  (* the next chunk is selected *)
  Lemma rs_rem_next st cs c :
    rs_wf st -> rs_cur st = Some cs -> ((rs_off st <? 0) || (rs_len st <=? rs_off st))%Z = true ->
    nth_error cs (Z.to_nat (rs_idx st + 1)) = Some c ->
    let st2 := mkRS (rs_q st) (Some cs) (rs_idx st + 1) 0 (Z.of_N (blen c)) in
    rs_wf st2 /\ rs_rem st = rs_rem st2 /\ c <> [] /\ nth (Z.to_nat (rs_idx st + 1)) cs [] = c.
  Proof.
    unfold rs_wf, rs_rem. intros Hwf Ec Esel En. rewrite Ec in *. cbn [rs_cur rs_off rs_idx rs_len rs_q].
    destruct Hwf as [Hne Hpos].
    assert (Hc : nth (Z.to_nat (rs_idx st + 1)) cs [] = c) by (eapply nth_error_nth; eauto).
    assert (Hcne : c <> []) by (rewrite Forall_forall in Hne; apply Hne; eapply nth_error_In; eauto).
    assert (Hlt : (Z.to_nat (rs_idx st + 1) < length cs)%nat) by (apply nth_error_Some; congruence).
    assert (Hidx : (-1 <= rs_idx st)%Z) by (destruct Hpos as [[_ ->]|[[? ?] _]]; lia).
    split; [split; [exact Hne|right; rewrite Hc; lia]|]. split; [|auto].
    change (0 <? 0)%Z with false. change (Z.to_N 0) with 0. rewrite drop_0, Hc. f_equal.
    destruct Hpos as [[Hoff Hi]|[[Hi1 Hi2] [Hlen Hoff]]].
    - assert (E : (rs_off st <? 0)%Z = true) by lia. rewrite E.
      rewrite Hi in *. change (Z.to_nat (-1 + 1)) with 0%nat in *.
      destruct cs as [|c0 t]; cbn in En; [discriminate|]. now inversion En.
    - assert (E : (rs_off st <? 0)%Z = false) by lia. rewrite E.
      rewrite drop_all by (replace (rs_off st) with (rs_len st) by lia; rewrite Hlen; lia). cbn [app].
      replace (S (Z.to_nat (rs_idx st))) with (Z.to_nat (rs_idx st + 1)) by lia.
      now rewrite (skipn_nth_error _ _ _ En).
  Qed.

  (* lines 65-95: one Write out of the current chunk, at an offset inside it *)
  Lemma rs_write_spec st cs maxb scr x scr' :
    rs_wf st -> rs_cur st = Some cs -> (0 <= rs_off st < rs_len st)%Z ->
    io_write (take (N.min maxb (Z.to_N (rs_len st) - Z.to_N (rs_off st))) (drop (Z.to_N (rs_off st)) (rs_chunk st))) scr = (x, scr') ->
    let st2 := mkRS (rs_q st) (rs_cur st) (rs_idx st) (rs_off st + Z.of_N (blen x)) (rs_len st) in
    rs_wf st2 /\ rs_rem st = x ++ rs_rem st2 /\ rs_m st2 = rs_m st /\
    (0 <? blen x = true -> (length scr' < length scr)%nat) /\
    (1 <= maxb -> 1 <= io_k scr -> x <> []).
  Proof.
    unfold rs_wf, rs_rem, rs_m, rs_chunk. intros Hwf Ec Hoff Ew. rewrite Ec in *. cbn [rs_cur rs_off rs_idx rs_len rs_q].
    destruct Hwf as [Hne [[? ?]|[Hi [Hlen _]]]]; [lia|].
    apply io_write_take in Ew. destruct Ew as (Hd & Hbx & ->). rewrite blen_drop in Hbx.
    split; [split; [exact Hne|right; repeat split; auto; lia]|]. split; [|split; [reflexivity|split]].
    - assert (E : (rs_off st <? 0)%Z = false) by lia. assert (E2 : (rs_off st + Z.of_N (blen x) <? 0)%Z = false) by lia.
      rewrite E, E2, !app_assoc. do 2 f_equal. rewrite Hd at 1. f_equal. rewrite drop_drop. f_equal. lia.
    - intros Hx. apply io_tl_shorter. lia.
    - intros H1 H2 ->. change (blen []) with 0 in Hbx. lia.
  Qed.

  (* what a run of the send loop achieves; with fuel beyond the Messages in hand, a call that is allowed to
     move a byte does, while bytes remain *)
  Definition rs_post (fuel : nat) (st : rsend) (acc : bytes) (maxb : N) (scr : list N) (st' : rsend) (acc' : bytes) : Prop :=
    rs_wf st' /\ exists x, acc' = acc ++ x /\ rs_rem st = x ++ rs_rem st' /\
      ((rs_m st < fuel)%nat -> rs_rem st <> [] -> 1 <= maxb -> 1 <= io_k scr -> x <> []).

  Lemma r_out_spec fuel : forall st maxb scr acc st' acc',
    rs_wf st -> r_out xform fuel st maxb scr acc = (st', acc') -> rs_post fuel st acc maxb scr st' acc'.
  Proof.
    induction fuel as [|fuel IH]; intros st maxb scr acc st' acc' Hwf H; cbn [r_out] in H.
    { inversion H; subst. split; auto. exists []. rewrite app_nil_r. repeat split; auto. lia. }
    fold (rs_pop st) in H.
    destruct (rs_pop_spec st Hwf) as (Hwf1 & Hrem1 & Hm1 & Hnone). clear Hwf.
    assert (Hstop : forall s : rsend, rs_wf s -> rs_rem st = rs_rem s -> (rs_rem s <> [] -> 1 <= maxb -> 1 <= io_k scr -> False) ->
              rs_post (S fuel) st acc maxb scr s acc).
    { intros s Hs Hr Hno. split; [exact Hs|]. exists []. rewrite app_nil_r. repeat split; auto. rewrite Hr. intros _ H1 H2 H3. destruct (Hno H1 H2 H3). }
    (* a Write at an offset inside the current chunk, then the rest of the loop *)
    assert (Hwrite : forall s cs, rs_wf s -> rs_cur s = Some cs -> rs_rem st = rs_rem s -> (0 <= rs_off s < rs_len s)%Z ->
              (let '(x, scr') := io_write (take (N.min maxb (Z.to_N (rs_len s) - Z.to_N (rs_off s))) (drop (Z.to_N (rs_off s)) (rs_chunk s))) scr in
               if 0 <? blen x
               then r_out xform fuel (mkRS (rs_q s) (rs_cur s) (rs_idx s) (rs_off s + Z.of_N (blen x)) (rs_len s)) (maxb - blen x) scr' (acc ++ x)
               else (s, acc)) = (st', acc') ->
              rs_post (S fuel) st acc maxb scr st' acc').
    { intros s cs Hs Ecs Hr Hoff Hk.
      destruct (io_write _ scr) as [x scr'] eqn:Ew.
      destruct (rs_write_spec s cs maxb scr x scr' Hs Ecs Hoff Ew) as (Hwf2 & Hrem2 & _ & _ & Hx).
      destruct (0 <? blen x) eqn:Epos.
      - destruct (IH _ _ _ _ _ _ Hwf2 Hk) as (Hwf' & y & Hacc & Hrem & _). split; [exact Hwf'|].
        exists (x ++ y). split; [now rewrite Hacc, app_assoc|]. split; [now rewrite Hr, Hrem2, Hrem, app_assoc|].
        intros _ _ _ _ E. apply app_eq_nil in E. destruct E as [-> _]. discriminate.
      - inversion Hk; subst. apply Hstop; auto. intros _ H1 H2. apply (Hx H1 H2). apply blen_0. lia. }
    destruct (rs_cur (rs_pop st)) as [cs|] eqn:Ec1.
    2:{ inversion H; subst. apply Hstop; auto. rewrite Hrem1. intros Hr. destruct (Hr (Hnone eq_refl)). }
    destruct ((rs_off (rs_pop st) <? 0) || (rs_len (rs_pop st) <=? rs_off (rs_pop st)))%Z eqn:Esel.
    - destruct (nth_error cs (Z.to_nat (rs_idx (rs_pop st) + 1))) as [c|] eqn:En.
      + (* the next chunk *)
        destruct (rs_rem_next _ _ _ Hwf1 Ec1 Esel En) as (Hwf2 & Hrem2 & Hcne & _).
        set (st2 := mkRS (rs_q (rs_pop st)) (Some cs) (rs_idx (rs_pop st) + 1) 0 (Z.of_N (blen c))) in *.
        assert (Hlt : (0 <= rs_off st2 < rs_len st2)%Z) by (unfold st2; cbn; pose proof (blen_pos _ Hcne); lia).
        assert (E : (rs_off st2 <? rs_len st2)%Z = true) by lia. rewrite E in H.
        apply (Hwrite st2 cs); auto. congruence.
      + (* no more chunks: the Message is done *)
        apply IH in H; [|exact I]. destruct H as (Hwf' & y & Hacc & Hrem & Hpr). split; [exact Hwf'|].
        assert (Hr2 : rs_rem st = rs_rem (mkRS (rs_q (rs_pop st)) None (rs_idx (rs_pop st) + 1) (rs_off (rs_pop st)) (rs_len (rs_pop st))))
          by (rewrite <- Hrem1, (rs_rem_done _ _ Hwf1 Ec1 Esel En); reflexivity).
        exists y. split; [exact Hacc|]. rewrite Hr2. split; [exact Hrem|].
        intros Hf. apply Hpr. unfold rs_m in *. cbn [rs_q rs_cur]. rewrite Ec1 in Hm1. lia.
    - (* continue with the current chunk *)
      assert (Hlt : (0 <= rs_off (rs_pop st) < rs_len (rs_pop st))%Z) by lia.
      assert (E : (rs_off (rs_pop st) <? rs_len (rs_pop st))%Z = true) by lia. rewrite E in H.
      apply (Hwrite (rs_pop st) cs); auto.
  Qed.

  (* ---- DoOutput as a whole *)
  Lemma r_do_output_spec st maxb scr st' x :
    rs_wf st -> r_do_output xform st maxb scr = (st', x) ->
    rs_wf st' /\ rs_rem st = x ++ rs_rem st' /\ (rs_rem st <> [] -> 1 <= maxb -> 1 <= io_k scr -> x <> []).
  Proof.
    unfold r_do_output. intros Hwf H.
    destruct (r_out_spec _ _ _ _ _ _ _ Hwf H) as (Hwf' & y & Hy & Hrem & Hpr).
    cbn in Hy. subst y. repeat split; auto. apply Hpr. unfold rs_m. destruct (rs_cur st); lia.
  Qed.

  (* ---- fuel adequacy: the fuel of r_do_output is never the reason a call ends *)
  Lemma r_out_fuel_enough fuel : forall st maxb scr acc,
    rs_wf st -> (length scr + rs_m st < fuel)%nat ->
    r_out xform fuel st maxb scr acc = r_out xform (S fuel) st maxb scr acc.
  Proof.
    induction fuel as [|fuel IH]; intros st maxb scr acc Hwf Hf; [lia|].
    remember (S fuel) as f1 eqn:Ef1.
    rewrite Ef1 at 1. cbn [r_out]. fold (rs_pop st).
    destruct (rs_pop_spec st Hwf) as (Hwf1 & _ & Hm1 & _).
    assert (Hf1 : (length scr + rs_m (rs_pop st) < S fuel)%nat) by lia. clear Hf Hm1 Hwf.
    assert (Hwrite : forall s cs, rs_wf s -> rs_cur s = Some cs -> (rs_m s <= rs_m (rs_pop st))%nat -> (0 <= rs_off s < rs_len s)%Z ->
              (let '(x, scr') := io_write (take (N.min maxb (Z.to_N (rs_len s) - Z.to_N (rs_off s))) (drop (Z.to_N (rs_off s)) (rs_chunk s))) scr in
               if 0 <? blen x
               then r_out xform fuel (mkRS (rs_q s) (rs_cur s) (rs_idx s) (rs_off s + Z.of_N (blen x)) (rs_len s)) (maxb - blen x) scr' (acc ++ x)
               else (s, acc)) =
              (let '(x, scr') := io_write (take (N.min maxb (Z.to_N (rs_len s) - Z.to_N (rs_off s))) (drop (Z.to_N (rs_off s)) (rs_chunk s))) scr in
               if 0 <? blen x
               then r_out xform f1 (mkRS (rs_q s) (rs_cur s) (rs_idx s) (rs_off s + Z.of_N (blen x)) (rs_len s)) (maxb - blen x) scr' (acc ++ x)
               else (s, acc))).
    { intros s cs Hs Ecs Hms Hoff. destruct (io_write _ scr) as [x scr'] eqn:Ew.
      destruct (rs_write_spec s cs maxb scr x scr' Hs Ecs Hoff Ew) as (Hwf2 & _ & Hm2 & Hscr & _).
      destruct (0 <? blen x) eqn:Ex; [|reflexivity]. subst f1. apply IH; [exact Hwf2|]. specialize (Hscr eq_refl). lia. }
    destruct (rs_cur (rs_pop st)) as [cs|] eqn:Ec1; [|reflexivity].
    destruct ((rs_off (rs_pop st) <? 0) || (rs_len (rs_pop st) <=? rs_off (rs_pop st)))%Z eqn:Esel.
    - destruct (nth_error cs (Z.to_nat (rs_idx (rs_pop st) + 1))) as [c|] eqn:En.
      + destruct (rs_rem_next _ _ _ Hwf1 Ec1 Esel En) as (Hwf2 & _ & Hcne & _).
        set (st2 := mkRS (rs_q (rs_pop st)) (Some cs) (rs_idx (rs_pop st) + 1) 0 (Z.of_N (blen c))) in *.
        assert (Hlt : (0 <= rs_off st2 < rs_len st2)%Z) by (unfold st2; cbn; pose proof (blen_pos _ Hcne); lia).
        assert (E : (rs_off st2 <? rs_len st2)%Z = true) by lia. rewrite E.
        apply (Hwrite st2 cs); auto. unfold rs_m, st2. cbn [rs_q rs_cur]. now rewrite Ec1.
      + subst f1. apply IH; [exact I|]. unfold rs_m in *. cbn [rs_q rs_cur]. rewrite Ec1 in Hf1. lia.
    - assert (Hlt : (0 <= rs_off (rs_pop st) < rs_len (rs_pop st))%Z) by lia.
      assert (E : (rs_off (rs_pop st) <? rs_len (rs_pop st))%Z = true) by lia. rewrite E.
      apply (Hwrite (rs_pop st) cs); auto.
  Qed.

  Lemma r_do_output_fuel st maxb scr extra :
    rs_wf st ->
    r_out xform (extra + S (S (length scr + length (rs_q st)))) st maxb scr [] = r_do_output xform st maxb scr.
  Proof.
    intros Hwf. unfold r_do_output. induction extra as [|e IH]; [reflexivity|].
    cbn [plus]. rewrite <- r_out_fuel_enough; auto.
    unfold rs_m. destruct (rs_cur st); lia.
  Qed.

  Lemma rs_sender (wfm : list bytes -> Prop) :
    sender_laws rs_queue (r_do_output xform) rs_init wfm rs_qbytes rs_rem (fun _ => 0%nat) (fun s _ => rs_wf s).
  Proof.
    split.
    - reflexivity.
    - split; [exact I|reflexivity].
    - intros s ms m _ _ Hs. split; [exact Hs|]. exists (rs_qbytes [m]). split; [|apply rs_qbytes_app].
      unfold rs_rem. cbn [rs_queue rs_cur rs_off rs_idx rs_q]. now rewrite rs_qbytes_app, app_assoc.
    - intros s ms maxb scr s' x _ Hs H. destruct (r_do_output_spec _ _ _ _ _ Hs H) as (? & ? & _). auto.
    - intros s ms maxb scr s' x _ Hs H. destruct (r_do_output_spec _ _ _ _ _ Hs H) as (_ & _ & Hx). auto.
  Qed.
End RawSend.

(* ---------------------------------------------------------------------- r_trunc *)
Lemma r_trunc_ne m : Forall nonempty (r_trunc m).
Proof.
  induction m as [|c t IH]; cbn; [constructor|].
  destruct c; [constructor|]. constructor; [discriminate|exact IH].
Qed.

Lemma r_trunc_id m : Forall nonempty m -> r_trunc m = m.
Proof.
  induction 1 as [|c t Hc _ IH]; cbn; auto.
  destruct c; [contradiction Hc; reflexivity|]. now rewrite IH.
Qed.

(* ---------------------------------------------------------------------- receiver *)
Definition rr_pend (st : rrecv) : bytes := match rr_cur st with Some c => c | None => [] end.
Definition flat_chunks (o : list (list bytes)) : bytes := concat (map (@concat N) o).

Lemma flat_chunks_app a b : flat_chunks (a ++ b) = flat_chunks a ++ flat_chunks b.
Proof. unfold flat_chunks. now rewrite map_app, concat_app. Qed.

Lemma r_in_min_unfold scr minc st maxb pipe outs :
  r_in_min scr minc st maxb pipe outs =
  let '(x, pipe', _) := io_read (N.min maxb (minc - blen (rr_pend st))) scr pipe in
  if 0 <? blen x then
    if blen (rr_pend st ++ x) =? minc then
      match scr with
      | [] => (mkRR None, outs ++ [[rr_pend st ++ x]], pipe')
      | _ :: scr' => r_in_min scr' minc (mkRR None) (maxb - blen x) pipe' (outs ++ [[rr_pend st ++ x]])
      end
    else (mkRR (Some (rr_pend st ++ x)), outs, pipe')
  else (mkRR (Some (rr_pend st)), outs, pipe').
Proof. destruct scr; reflexivity. Qed.

(* fixed-size chunk assembly: bytes come out in order, and the chunk in hand stays below its size *)
Lemma r_in_min_spec scr : forall minc st maxb pipe outs st' outs' pipe',
  r_in_min scr minc st maxb pipe outs = (st', outs', pipe') ->
  exists x o, pipe = x ++ pipe' /\ outs' = outs ++ o /\
              rr_pend st ++ x = flat_chunks o ++ rr_pend st' /\
              (0 < minc -> blen (rr_pend st) < minc -> blen (rr_pend st') < minc).
Proof.
  induction scr as [|k scr IH]; intros minc st maxb pipe outs st' outs' pipe' H;
    rewrite r_in_min_unfold in H;
    destruct (io_read (N.min maxb (minc - blen (rr_pend st))) _ pipe) as [[x p1] s1] eqn:Er;
    apply io_read_spec in Er; destruct Er as (Hp & Hb & _);
    (destruct (0 <? blen x) eqn:Ex;
     [ destruct (blen (rr_pend st ++ x) =? minc) eqn:Efull
     | inversion H; subst; clear H; assert (x = []) by (apply blen_0; lia); subst x;
       exists [], []; rewrite !app_nil_r; repeat split; auto ]).
  - inversion H; subst; clear H. exists x, [[rr_pend st ++ x]]. repeat split; auto.
    unfold flat_chunks; cbn. now rewrite !app_nil_r.
  - inversion H; subst; clear H. exists x, []. rewrite app_nil_r. repeat split; auto. cbn. rewrite blen_app in *. lia.
  - apply IH in H. destruct H as (y & o & Hp1 & Ho & Hpend & Hlt).
    exists (x ++ y), ([[rr_pend st ++ x]] ++ o). repeat split.
    + rewrite Hp, Hp1. now rewrite app_assoc.
    + rewrite Ho. now rewrite <- app_assoc.
    + rewrite flat_chunks_app. cbn in Hpend. rewrite <- app_assoc, <- Hpend.
      unfold flat_chunks; cbn. now rewrite !app_nil_r, <- app_assoc.
    + intros Hm _. apply Hlt; auto.
  - inversion H; subst; clear H. exists x, []. rewrite app_nil_r. repeat split; auto. cbn. rewrite blen_app in *. lia.
Qed.

Lemma r_do_input_spec minc maxc st maxb scr pipe st' o pipe' :
  (minc = 0 -> rr_pend st = []) ->
  r_do_input minc maxc st maxb scr pipe = (st', o, pipe') ->
  exists x, pipe = x ++ pipe' /\ rr_pend st ++ x = flat_chunks o ++ rr_pend st'.
Proof.
  intros H0. unfold r_do_input. destruct (0 <? minc) eqn:Em.
  - intros H. apply r_in_min_spec in H. destruct H as (x & o' & Hp & Ho & Hpend & _).
    cbn in Ho. subst o'. eauto.
  - destruct (io_read (N.min (r_scratch minc maxc) maxb) scr pipe) as [[x p1] s1] eqn:Er.
    intros H. inversion H; subst; clear H.
    apply io_read_spec in Er. destruct Er as (Hp & Hb & _).
    exists x. split; auto. rewrite H0 by lia.
    destruct (0 <? blen x) eqn:Ex.
    + unfold flat_chunks; cbn. now rewrite !app_nil_r.
    + assert (x = []) by (apply blen_0; lia). subst x. reflexivity.
Qed.

Lemma r_do_input_progress minc maxc st maxb scr pipe st' o pipe' :
  blen (rr_pend st) < minc \/ minc = 0 ->
  r_do_input minc maxc st maxb scr pipe = (st', o, pipe') ->
  pipe <> [] -> 1 <= maxb -> 1 <= io_k scr -> (length pipe' < length pipe)%nat.
Proof.
  intros Hpend H Hne Hm Hk.
  assert (Hpp : 0 < blen pipe) by (apply blen_pos; auto).
  assert (Hgoal : forall x, pipe = x ++ pipe' -> 0 < blen x -> (length pipe' < length pipe)%nat).
  { intros x -> Hx. rewrite app_length. unfold blen in Hx. lia. }
  unfold r_do_input in H. destruct (0 <? minc) eqn:Em.
  - rewrite r_in_min_unfold in H.
    destruct (io_read (N.min maxb (minc - blen (rr_pend st))) scr pipe) as [[x p1] s1] eqn:Er.
    apply io_read_spec in Er. destruct Er as (Hp & Hb & _).
    assert (Hx : 0 < blen x) by lia.
    assert (E : (0 <? blen x) = true) by lia. rewrite E in H.
    destruct (blen (rr_pend st ++ x) =? minc).
    + destruct scr as [|k scr]; [inversion H; subst; eapply Hgoal; eauto|].
      apply r_in_min_spec in H. destruct H as (y & o' & Hp1 & _).
      apply (Hgoal (x ++ y)).
      * rewrite Hp, Hp1. now rewrite app_assoc.
      * rewrite blen_app. lia.
    + inversion H; subst. eapply Hgoal; eauto.
  - destruct (io_read (N.min (r_scratch minc maxc) maxb) scr pipe) as [[x p1] s1] eqn:Er.
    inversion H; subst; clear H.
    apply io_read_spec in Er. destruct Er as (Hp & Hb & _).
    apply (Hgoal x); auto.
    assert (1 <= r_scratch minc maxc) by (unfold r_scratch; change c_raw_max_scratch with 8192; lia).
    lia.
Qed.

(* ---------------------------------------------------------------------- the raw gateway, end to end.
   The receiver is no decoder: it passes bytes on and, in fixed-size chunk mode, holds some back ([rr_pend]); it
   stands on the transport theorem directly. *)
Section RawE2E.
  Variables minc maxc : N.

  Definition raw_wfm (m : list bytes) : Prop := Forall nonempty m.        (* chunks are non-empty *)
  Definition raw_RRel (r : rrecv) (c : bytes) (o : list (list bytes)) : Prop :=
    flat_chunks o ++ rr_pend r = c /\ (blen (rr_pend r) < minc \/ (minc = 0 /\ rr_pend r = [])).

  Lemma raw_wire_flat ms : Forall raw_wfm ms -> rs_qbytes r_trunc ms = flat_chunks ms.
  Proof.
    unfold rs_qbytes, flat_chunks.
    induction 1 as [|m t Hm _ IH]; cbn; auto. rewrite IH, (r_trunc_id _ Hm). reflexivity.
  Qed.

  Definition raw_sys0 := @sys0 (list bytes) (list bytes) rsend rrecv rs_init rr_init.
  Definition raw_sender := rs_sender r_trunc r_trunc_ne raw_wfm.

  Lemma raw_R_init : raw_RRel rr_init [] [].
  Proof.
    split; [reflexivity|]. cbn. destruct (N.eq_dec minc 0); [right; auto|left; lia].
  Qed.

  Lemma raw_R_in (ms : list (list bytes)) r c o maxb scr pipe (rest : bytes) r' o' pipe' :
    Forall raw_wfm ms -> rs_qbytes r_trunc ms = c ++ pipe ++ rest -> raw_RRel r c o ->
    r_do_input minc maxc r maxb scr pipe = (r', o', pipe') ->
    exists x, pipe = x ++ pipe' /\ raw_RRel r' (c ++ x) (o ++ o').
  Proof.
    intros _ _ [Hc Hp] H.
    assert (H0 : minc = 0 -> rr_pend r = []) by (intros E0; destruct Hp as [Hp|[_ Hp]]; [lia|auto]).
    destruct (r_do_input_spec _ _ _ _ _ _ _ _ _ H0 H) as (x & Hx & Hpend).
    exists x. split; auto. split.
    - rewrite flat_chunks_app, <- app_assoc, <- Hpend, app_assoc, Hc. reflexivity.
    - unfold r_do_input in H. destruct (0 <? minc) eqn:Em.
      + left. destruct Hp as [Hp|[Hp _]]; [|lia].
        apply r_in_min_spec in H. destruct H as (_ & _ & _ & _ & _ & Hlt). apply Hlt; auto. lia.
      + right. destruct Hp as [Hp|[Hp Hq]]; [lia|]. split; auto.
        destruct (io_read (N.min (r_scratch minc maxc) maxb) scr pipe) as [[y p1] s1].
        inversion H; subst. exact Hq.
  Qed.

  Lemma raw_decode_prefix ms (r : rrecv) c o (rest : bytes) :
    Forall raw_wfm ms -> rs_qbytes r_trunc ms = c ++ rest -> raw_RRel r c o ->
    exists tl, flat_chunks ms = flat_chunks o ++ tl.
  Proof.
    intros Hwf Hw [Hc _]. rewrite <- (raw_wire_flat ms Hwf). rewrite Hw, <- Hc.
    exists (rr_pend r ++ rest). now rewrite app_assoc.
  Qed.

  Lemma raw_decode_complete ms r o :
    Forall raw_wfm ms -> raw_RRel r (rs_qbytes r_trunc ms) o -> flat_chunks o ++ rr_pend r = flat_chunks ms.
  Proof. intros Hwf [Hc _]. rewrite <- (raw_wire_flat ms Hwf). exact Hc. Qed.

  Lemma raw_in_progress (ms : list (list bytes)) r c o maxb scr pipe (rest : bytes) r' o' pipe' :
    Forall raw_wfm ms -> rs_qbytes r_trunc ms = c ++ pipe ++ rest -> raw_RRel r c o ->
    r_do_input minc maxc r maxb scr pipe = (r', o', pipe') ->
    pipe <> [] -> 1 <= maxb -> 1 <= io_k scr -> (length pipe' < length pipe)%nat.
  Proof.
    intros _ _ [_ Hp] H Hne Hm Hk. apply (r_do_input_progress minc maxc r maxb scr pipe r' o' pipe'); auto.
    destruct Hp as [Hp|[Hp _]]; auto.
  Qed.
End RawE2E.
