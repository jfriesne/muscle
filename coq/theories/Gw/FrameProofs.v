(* C03 -- proofs about the binary gateway model (MessageIOGateway): the send loop, the receive
   loop as a refinement of the byte-at-a-time machine, the split lemma, decoding of a framed
   stream, and the sender and decoder laws (TransportProofs), for any codec satisfying the premise [codec_sync]
   (discharged for the default encoding in FrameDefault.v, for zlib in ZlibProofs.v, for the
   templating gateway in TmplProofs.v). *)
From Coq Require Import List NArith ZArith Bool Lia ZifyBool.
From Muscle Require Import Gen.Consts Gw.GwBase Gw.GwLemmas Gw.FrameModel Gw.TransportProofs.
Import ListNotations.
Local Open Scope N_scope.

Lemma f_hs_is_8 : f_hs = 8.
Proof. reflexivity. Qed.
Lemma f_scratch_ge_hs : f_hs <= f_scratch.
Proof. vm_compute. discriminate. Qed.

(* reading back the two header words of a buffer and what follows them *)
Lemma frame_head n enc body : n < two32 -> enc < two32 ->
  let buf := le32 n ++ le32 enc ++ body in
  rd32 buf = n /\ rd32 (drop 4 buf) = enc /\ drop f_hs buf = body /\ blen buf = f_hs + blen body.
Proof.
  intros Hn He buf. subst buf. split; [|split; [|split]].
  - now apply rd32_le32.
  - change 4 with (blen (le32 n)). rewrite drop_app_exact. now apply rd32_le32.
  - reflexivity.
  - rewrite !blen_app, !blen_le32, f_hs_is_8. lia.
Qed.

Section FrameProofs.
  Variable Msg : Type.
  Variables CS CR : Type.
  Variable flat : CS -> Msg -> CS * bytes.
  Variable unflat : CR -> bytes -> CR * option Msg.
  Variable body_size : bytes -> option N.
  Variable max_in : N.
  Variable cs0 : CS.
  Variable cr0 : CR.

  Notation fsend := (fsend Msg CS).
  Notation frecv := (frecv CR).
  Notation f_fill := (f_fill Msg CS flat).
  Notation f_out_loop := (f_out_loop Msg CS flat).
  Notation f_do_output := (f_do_output Msg CS flat).
  Notation f_turn := (f_turn Msg CR unflat body_size max_in).
  Notation f_in_loop := (f_in_loop Msg CR unflat body_size max_in).
  Notation f_do_input := (f_do_input Msg CR unflat body_size max_in).
  Notation f_byte := (f_byte Msg CR unflat body_size max_in).
  Notation f_feed := (f_feed Msg CR unflat body_size max_in).
  Notation f_header := (f_header body_size max_in).

  (* ==================================================================== sender *)
  Fixpoint cs_after (c : CS) (ms : list Msg) : CS :=
    match ms with [] => c | m :: t => cs_after (fst (flat c m)) t end.
  Fixpoint wire_from (c : CS) (ms : list Msg) : bytes :=
    match ms with [] => [] | m :: t => snd (flat c m) ++ wire_from (fst (flat c m)) t end.

  Lemma cs_after_app c a b : cs_after c (a ++ b) = cs_after (cs_after c a) b.
  Proof. revert c. induction a as [|m a IH]; intros c; cbn; auto. Qed.

  Lemma wire_from_app c a b : wire_from c (a ++ b) = wire_from c a ++ wire_from (cs_after c a) b.
  Proof. revert c. induction a as [|m a IH]; intros c; cbn; auto. now rewrite IH, app_assoc. Qed.

  Hypothesis flat_len : forall c m, f_hs <= blen (snd (flat c m)).

  Definition fs_rem (st : fsend) : bytes :=
    match fs_buf st with Some b => drop (fs_off st) b | None => [] end ++ wire_from (fs_cs st) (fs_q st).
  Definition fs_wf (st : fsend) : Prop :=
    match fs_buf st with Some b => fs_off st < blen b | None => fs_off st = 0 end.
  Definition fs_SI (st : fsend) (ms : list Msg) : Prop :=
    fs_wf st /\ exists done, ms = done ++ fs_q st /\ fs_cs st = cs_after cs0 done.

  (* HasBytesToOutput() = false: nothing queued is left unsent (the event loops call DoOutput() only while it says true) *)
  Lemma fs_has_bytes_rem st : fs_has_bytes st = false -> fs_rem st = [].
  Proof.
    unfold fs_has_bytes, fs_rem. destruct (fs_buf st); [discriminate|].
    destruct (fs_q st); [reflexivity|discriminate].
  Qed.

  Lemma f_fill_some st ms st1 b :
    fs_SI st ms -> f_fill st = Some (st1, b) ->
    fs_SI st1 ms /\ fs_buf st1 = Some b /\ fs_rem st1 = fs_rem st.
  Proof.
    intros [Hwf (dn & Hms & Hcs)] H. unfold FrameModel.f_fill in H.
    destruct (fs_buf st) as [b0|] eqn:Eb.
    - inversion H; subst. repeat split; auto. exists dn; auto.
    - destruct (fs_q st) as [|m q] eqn:Eq; [discriminate|].
      destruct (flat (fs_cs st) m) as [c' f] eqn:Ef. inversion H; subst; clear H.
      split; [|split; auto].
      + split.
        * unfold fs_wf. cbn [fs_buf fs_off]. pose proof (flat_len (fs_cs st) m) as Hl. rewrite Ef in Hl.
          cbn [snd] in Hl. rewrite f_hs_is_8 in Hl. lia.
        * exists (dn ++ [m]). cbn. split; [now rewrite <- app_assoc|].
          rewrite cs_after_app, <- Hcs. cbn. now rewrite Ef.
      + unfold fs_rem. cbn [fs_buf fs_off fs_q fs_cs]. rewrite Eb, Eq. cbn [wire_from app].
        rewrite Ef. cbn [fst snd]. now rewrite drop_0.
  Qed.

  Lemma f_fill_none st : f_fill st = None -> fs_rem st = [].
  Proof.
    unfold FrameModel.f_fill, fs_rem. destruct (fs_buf st); [discriminate|].
    destruct (fs_q st) as [|m q]; [reflexivity|]. destruct (flat (fs_cs st) m). discriminate.
  Qed.

  Lemma f_send_more_spec st b maxb scr st2 x maxb' short :
    fs_buf st = Some b -> fs_off st < blen b ->
    f_send_more Msg CS st b maxb scr = (st2, x, maxb', short) ->
    st2 = mkFS (fs_q st) (fs_buf st) (fs_off st + blen x) (fs_cs st) /\
    drop (fs_off st) b = x ++ drop (fs_off st + blen x) b /\
    blen x = N.min (N.min maxb (blen b - fs_off st)) (io_k scr) /\
    maxb' = maxb - blen x /\
    short = (blen x <? N.min maxb (blen b - fs_off st)).
  Proof.
    intros Hb Hoff H. unfold f_send_more in H.
    destruct (io_write (take (N.min maxb (blen b - fs_off st)) (drop (fs_off st) b)) scr) as [y s1] eqn:Ew.
    inversion H; subst; clear H.
    apply io_write_take in Ew. destruct Ew as (Hd & Hbx & _). rewrite blen_drop in Hbx.
    split; auto. split; [rewrite Hd at 1; f_equal; now rewrite drop_drop|].
    split; [lia|]. split; auto.
  Qed.

  Lemma f_out_loop_eq scr st maxb acc :
    f_out_loop scr st maxb acc =
    if maxb =? 0 then (st, acc) else
    match f_fill st with
    | None => (st, acc)
    | Some (st1, b) =>
        let '(st2, x, maxb', short) := f_send_more Msg CS st1 b maxb scr in
        if short then (st2, acc ++ x) else
        let st3 := if fs_off st2 =? blen b then mkFS (fs_q st2) None 0 (fs_cs st2) else st2 in
        match scr with [] => (st3, acc ++ x) | _ :: scr' => f_out_loop scr' st3 maxb' (acc ++ x) end
    end.
  Proof. destruct scr; reflexivity. Qed.

  (* what a run of the send loop from [st] with [acc] already written achieves; the last part: a call
     that is allowed to move a byte does, while bytes remain *)
  Definition out_post ms (st : fsend) (acc : bytes) (maxb : N) (scr : list N) (st' : fsend) (acc' : bytes) : Prop :=
    fs_SI st' ms /\ exists x, acc' = acc ++ x /\ fs_rem st = x ++ fs_rem st' /\
      (fs_rem st <> [] -> 1 <= maxb -> 1 <= io_k scr -> x <> []).

  (* one turn of the loop; the first hypothesis stands for the rest of the loop *)
  Lemma f_out_turn ms scr st maxb acc st' acc' :
    (forall st3 maxb3 acc3, fs_SI st3 ms ->
        match scr with [] => (st3, acc3) | _ :: scr' => f_out_loop scr' st3 maxb3 acc3 end = (st', acc') ->
        fs_SI st' ms /\ exists x, acc' = acc3 ++ x /\ fs_rem st3 = x ++ fs_rem st') ->
    fs_SI st ms -> f_out_loop scr st maxb acc = (st', acc') -> out_post ms st acc maxb scr st' acc'.
  Proof.
    intros Hrec HSI H. rewrite f_out_loop_eq in H.
    assert (Hstop : (fs_rem st <> [] -> 1 <= maxb -> False) -> out_post ms st acc maxb scr st acc).
    { intros Hno. split; [exact HSI|]. exists []. rewrite app_nil_r. repeat split; auto. }
    destruct (maxb =? 0) eqn:E0; [inversion H; subst; apply Hstop; lia|].
    destruct (f_fill st) as [[st1 b]|] eqn:Efill;
      [|inversion H; subst; apply Hstop; intros Hr; destruct (Hr (f_fill_none _ Efill))].
    destruct (f_fill_some _ _ _ _ HSI Efill) as (HSI1 & Hb1 & Hrem1). unfold out_post. rewrite <- Hrem1.
    assert (Hoff1 : fs_off st1 < blen b) by (destruct HSI1 as [Hw _]; unfold fs_wf in Hw; now rewrite Hb1 in Hw).
    destruct (f_send_more Msg CS st1 b maxb scr) as [[[st2 x] maxb'] short] eqn:Esm.
    destruct (f_send_more_spec _ _ _ _ _ _ _ _ Hb1 Hoff1 Esm) as (-> & Hd & Hbx & -> & ->).
    assert (Hx : 1 <= maxb -> 1 <= io_k scr -> forall y : bytes, x ++ y <> []).
    { intros H1 H2 y E. apply app_eq_nil in E. destruct E as [-> _]. change (blen []) with 0 in Hbx. lia. }
    set (st2 := mkFS (fs_q st1) (fs_buf st1) (fs_off st1 + blen x) (fs_cs st1)) in *.
    assert (Hrem2 : fs_rem st1 = x ++ fs_rem st2).
    { unfold fs_rem, st2. cbn. rewrite Hb1. rewrite Hd at 1. now rewrite app_assoc. }
    assert (HSI2 : fs_off st1 + blen x < blen b -> fs_SI st2 ms).
    { intros Hlt. destruct HSI1 as [_ Hd1]. split; [unfold fs_wf, st2; cbn; now rewrite Hb1|exact Hd1]. }
    destruct (blen x <? N.min maxb (blen b - fs_off st1)) eqn:Eshort.
    - inversion H; subst; clear H. split; [apply HSI2; lia|]. exists x. repeat split; auto.
      intros _ H1 H2. rewrite <- (app_nil_r x). now apply Hx.
    - apply Hrec in H.
      + destruct H as (HSI' & y & Hacc & Hrem). split; [exact HSI'|]. exists (x ++ y).
        split; [now rewrite Hacc, app_assoc|]. split; [|intros _ H1 H2; now apply Hx].
        rewrite Hrem2, <- app_assoc, <- Hrem. f_equal. subst st2. cbn [fs_off fs_q fs_cs].
        destruct (fs_off st1 + blen x =? blen b) eqn:Efull; [|reflexivity].
        unfold fs_rem. cbn. rewrite Hb1, drop_all by lia. reflexivity.
      + subst st2. cbn [fs_off fs_q fs_cs]. destruct (fs_off st1 + blen x =? blen b) eqn:Efull.
        * destruct HSI1 as [_ Hd1]. split; [reflexivity|exact Hd1].
        * apply HSI2. lia.
  Qed.

  Lemma f_out_spec ms scr : forall st maxb acc st' acc',
    fs_SI st ms -> f_out_loop scr st maxb acc = (st', acc') -> out_post ms st acc maxb scr st' acc'.
  Proof.
    induction scr as [|k scr IH]; intros st maxb acc st' acc' HSI H; apply (f_out_turn ms _ _ _ _ _ _) in H; auto;
      intros st3 maxb3 acc3 H3 E.
    - inversion E; subst. split; [exact H3|]. exists []. now rewrite app_nil_r.
    - destruct (IH _ _ _ _ _ H3 E) as (HSI' & x & Ha & Hr & _). eauto.
  Qed.

  Lemma f_do_output_spec ms st maxb scr st' x :
    fs_SI st ms -> f_do_output st maxb scr = (st', x) ->
    fs_SI st' ms /\ fs_rem st = x ++ fs_rem st' /\ (fs_rem st <> [] -> 1 <= maxb -> 1 <= io_k scr -> x <> []).
  Proof.
    intros HSI H. destruct (f_out_spec ms _ _ _ _ _ _ HSI H) as (HSI' & y & Hy & Hrem). cbn in Hy. subst y. auto.
  Qed.

  (* ==================================================================== receiver *)
  (* the C++ allocates the next receive buffer before it knows whether a byte will arrive, so
     "no buffer" and "scratch buffer with nothing in it" are the same protocol state *)
  Definition fr_norm (st : frecv) : frecv :=
    match fr_buf st with
    | Some (_, []) => mkFR None (fr_err st) (fr_cr st)
    | _ => st
    end.

  Definition fr_wf (st : frecv) : Prop :=
    fr_err st = false ->
    match fr_buf st with
    | None => True
    | Some (cap, got) => (blen got < f_hs -> cap = f_scratch) /\ (f_hs <= blen got -> blen got < cap)
    end.

  Definition mkR (cap : N) (got : bytes) (cr : CR) : frecv := mkFR (Some (cap, got)) false cr.

  Lemma fr_norm_nonempty cap got e cr : got <> [] -> fr_norm (mkFR (Some (cap, got)) e cr) = mkFR (Some (cap, got)) e cr.
  Proof. destruct got; [contradiction|reflexivity]. Qed.

  Lemma fr_norm_none e cr : fr_norm (mkFR None e cr) = mkFR None e cr.
  Proof. reflexivity. Qed.

  Lemma fr_norm_idem st : fr_norm (fr_norm st) = fr_norm st.
  Proof. unfold fr_norm. destruct st as [[[cap [|b got]]|] e cr]; reflexivity. Qed.

  Lemma fr_err_norm st : fr_err (fr_norm st) = fr_err st.
  Proof. destruct st as [[[cap [|b got]]|] e cr]; reflexivity. Qed.

  Lemma mkR_norm cap got cr : f_hs <= blen got -> fr_norm (mkR cap got cr) = mkR cap got cr.
  Proof. intros H. apply fr_norm_nonempty. intros ->. change (blen []) with 0 in H. rewrite f_hs_is_8 in H. lia. Qed.

  Lemma f_feed_app a st b :
    f_feed st (a ++ b) =
    let '(st1, o1) := f_feed st a in let '(st2, o2) := f_feed st1 b in (st2, o1 ++ o2).
  Proof. exact (bfeed_app f_byte a st b). Qed.

  Lemma f_byte_err st b : fr_err st = true -> f_byte st b = (st, []).
  Proof. intros He. unfold FrameModel.f_byte. now rewrite He. Qed.

  (* ---- one byte into a buffer that is in use: the header fills up to f_hs, the body up to cap *)
  Lemma f_byte_mkR cap got cr b :
    (blen got < f_hs -> cap = f_scratch) ->
    f_byte (fr_norm (mkR cap got cr)) b =
    if blen got <? f_hs then
      if f_hs <=? blen got + 1 then f_hdr_done Msg CR unflat body_size max_in cr cap (got ++ [b])
      else (fr_norm (mkR cap (got ++ [b]) cr), [])
    else if blen got + 1 =? cap then f_done Msg CR unflat cr (got ++ [b])
    else (fr_norm (mkR cap (got ++ [b]) cr), []).
  Proof.
    intros Hc. unfold mkR. rewrite (fr_norm_nonempty cap (got ++ [b])) by (destruct got; discriminate).
    destruct got as [|b0 got].
    - rewrite Hc by (rewrite f_hs_is_8; reflexivity). reflexivity.
    - unfold FrameModel.f_byte. cbn [fr_norm fr_err fr_buf fr_cr]. rewrite blen_app. reflexivity.
  Qed.

  (* ---- a chunk that stays inside the header or inside the body *)
  Lemma feed_partial x got cap cr :
    (blen got < f_hs -> cap = f_scratch) ->
    (blen got + blen x < f_hs \/ (f_hs <= blen got /\ blen got + blen x < cap)) ->
    f_feed (fr_norm (mkR cap got cr)) x = (fr_norm (mkR cap (got ++ x) cr), []).
  Proof.
    intros Hc [H|[H1 H2]].
    - apply (bfeed_below f_byte (fun g => fr_norm (mkR cap g cr)) 0 f_hs);
        try lia. intros g b _ Hg. rewrite f_byte_mkR by (intros; apply Hc; lia).
      assert (E1 : (blen g <? f_hs) = true) by lia. assert (E2 : (f_hs <=? blen g + 1) = false) by lia. now rewrite E1, E2.
    - apply (bfeed_below f_byte (fun g => fr_norm (mkR cap g cr)) f_hs cap); try lia.
      intros g b Hlo Hg. rewrite f_byte_mkR by lia.
      assert (E1 : (blen g <? f_hs) = false) by lia. assert (E2 : (blen g + 1 =? cap) = false) by lia. now rewrite E1, E2.
  Qed.

  (* ---- a chunk that ends exactly at the end of the header *)
  Lemma feed_hdr_exact x got cap cr :
    cap = f_scratch -> x <> [] -> blen got + blen x = f_hs ->
    f_feed (fr_norm (mkR cap got cr)) x = f_hdr_done Msg CR unflat body_size max_in cr cap (got ++ x).
  Proof.
    intros Hc Hx H.
    apply (bfeed_reach f_byte (fun g => fr_norm (mkR cap g cr)) (f_hdr_done Msg CR unflat body_size max_in cr cap) 0 f_hs);
      try lia; auto; intros g b _ Hg; rewrite f_byte_mkR by auto.
    - assert (E1 : (blen g <? f_hs) = true) by lia. assert (E2 : (f_hs <=? blen g + 1) = false) by lia. now rewrite E1, E2.
    - assert (E1 : (blen g <? f_hs) = true) by lia. assert (E2 : (f_hs <=? blen g + 1) = true) by lia. now rewrite E1, E2.
  Qed.

  (* ---- a chunk that ends exactly at the end of the body *)
  Lemma feed_body_exact x got cap cr :
    f_hs <= blen got -> x <> [] -> blen got + blen x = cap ->
    f_feed (mkR cap got cr) x = f_done Msg CR unflat cr (got ++ x).
  Proof.
    intros Hg Hx H. rewrite <- (mkR_norm cap got cr Hg).
    apply (bfeed_reach f_byte (fun g => fr_norm (mkR cap g cr)) (f_done Msg CR unflat cr) f_hs cap);
      auto; intros g b Hlo Hgb; rewrite f_byte_mkR by lia.
    - assert (E1 : (blen g <? f_hs) = false) by lia. assert (E2 : (blen g + 1 =? cap) = false) by lia. now rewrite E1, E2.
    - assert (E1 : (blen g <? f_hs) = false) by lia. assert (E2 : (blen g + 1 =? cap) = true) by lia. now rewrite E1, E2.
  Qed.

  (* ---- one Read; [want] is what it asks for *)
  Lemma f_recv_more_spec got target maxb scr pipe got' maxb' scr' pipe' short :
    f_recv_more got target maxb scr pipe = (got', maxb', scr', pipe', short) ->
    let want := N.min maxb (if blen got <? target then target - blen got else 0) in
    exists x, got' = got ++ x /\ pipe = x ++ pipe' /\
      blen x = N.min want (N.min (io_k scr) (blen pipe)) /\
      maxb' = maxb - blen x /\ scr' = io_tl scr /\ short = (blen x <? want).
  Proof.
    unfold f_recv_more. cbv zeta.
    destruct (io_read (N.min maxb (if blen got <? target then target - blen got else 0)) scr pipe) as [[x p1] s1] eqn:Er.
    apply io_read_spec in Er. destruct Er as (Hp & Hb & Hs).
    intros H. inversion H; subst; clear H. exists x. repeat split; auto.
  Qed.

  Lemma f_header_ge cap hdr cap1 : f_header cap hdr = Some cap1 -> f_hs <= cap1.
  Proof.
    unfold FrameModel.f_header.
    destruct (body_size hdr) as [body|]; [|discriminate].
    destruct ((body <=? max_in) && (body <=? c_MUSCLE_NO_LIMIT - f_hs)) eqn:Eb; [|discriminate].
    apply andb_true_iff in Eb. destruct Eb as [_ Eb].
    assert (Hnl : c_MUSCLE_NO_LIMIT = two32 - 1) by reflexivity.
    destruct (body <=? (if f_hs <? cap then cap - f_hs else 0)).
    - intros H. assert (cap1 = f_hs + body) by congruence. lia.
    - intros H. assert (cap1 = u32 (f_hs + body)) by congruence. subst cap1.
      unfold u32. rewrite N.mod_small; [lia|]. rewrite f_hs_is_8 in *. unfold two32 in *. lia.
  Qed.

  Definition turn_res (t : fturn Msg CR) : frecv * list Msg * bytes :=
    match t with FEnd _ _ st o p => (st, o, p) | FNext _ _ st _ _ p o => (st, o, p) end.
  (* a turn that goes round again has used up script entries: at least one ([lt]) / none lost ([le]) *)
  Definition turn_scr (rel : nat -> nat -> Prop) (t : fturn Msg CR) (scr : list N) : Prop :=
    match t with FEnd _ _ _ _ _ => True | FNext _ _ _ _ scr' _ _ => rel (length scr') (length scr) end.

  (* ---- body phase: what it reads is fed to the byte machine from the buffer it started with *)
  Lemma body_phase_spec cr cap1 got1 maxb1 scr1 pipe1 outs :
    f_hs <= blen got1 -> blen got1 <= cap1 ->
    let t := f_body_phase Msg CR unflat cr cap1 got1 maxb1 scr1 pipe1 outs in
    turn_scr le t scr1 /\ (blen got1 < cap1 -> 1 <= maxb1 -> turn_scr lt t scr1) /\
    let '(st', outs', pipe') := turn_res t in
    fr_wf st' /\ exists x o, pipe1 = x ++ pipe' /\ outs' = outs ++ o /\
      (if blen got1 =? cap1 then f_done Msg CR unflat cr got1 else f_feed (mkR cap1 got1 cr) x) = (fr_norm st', o) /\
      (blen got1 = cap1 -> x = []) /\
      (blen got1 < cap1 -> blen x = N.min (N.min maxb1 (cap1 - blen got1)) (N.min (io_k scr1) (blen pipe1))).
  Proof.
    intros Hg Hc. unfold f_body_phase.
    destruct (blen got1 <? cap1) eqn:Elt.
    - destruct (f_recv_more got1 cap1 maxb1 scr1 pipe1) as [[[[got2 maxb2] scr2] pipe2] short] eqn:Er.
      destruct (f_recv_more_spec _ _ _ _ _ _ _ _ _ _ Er) as (x & -> & Hp & Hb & -> & -> & ->).
      rewrite Elt in *.
      assert (Ene : (blen got1 =? cap1) = false) by lia. rewrite Ene.
      pose proof (io_tl_length scr1) as Hle.
      assert (Hs : blen x = N.min maxb1 (cap1 - blen got1) -> 1 <= maxb1 -> (length (io_tl scr1) < length scr1)%nat)
        by (intros; apply io_tl_shorter; lia).
      assert (Hpart : blen got1 + blen x < cap1 ->
                fr_wf (mkR cap1 (got1 ++ x) cr) /\ exists x0 (o : list Msg), pipe1 = x0 ++ pipe2 /\ outs = outs ++ o /\
                  f_feed (mkR cap1 got1 cr) x0 = (fr_norm (mkR cap1 (got1 ++ x) cr), o) /\ (blen got1 = cap1 -> x0 = []) /\
                  (blen got1 < cap1 -> blen x0 = N.min (N.min maxb1 (cap1 - blen got1)) (N.min (io_k scr1) (blen pipe1)))).
      { intros Hlt. split; [intros _; cbn [fr_buf mkR]; rewrite blen_app; split; lia|].
        exists x, []. rewrite app_nil_r. repeat split; auto; try lia.
        rewrite <- (mkR_norm cap1 got1 cr Hg). apply feed_partial; [lia|]. right. lia. }
      destruct (blen x <? N.min maxb1 (cap1 - blen got1)) eqn:Eshort.
      + cbn [turn_res turn_scr]. split; [exact I|]. split; [intros; exact I|]. apply Hpart; lia.
      + rewrite blen_app.
        destruct (blen got1 + blen x =? cap1) eqn:Efull.
        * assert (Hx : x <> []) by (intros ->; cbn in Efull; lia).
          pose proof (feed_body_exact x got1 cap1 cr Hg Hx ltac:(lia)) as Hf.
          unfold f_done in *. destruct (unflat cr (got1 ++ x)) as [cr' [m|]]; cbn [turn_res turn_scr].
          -- split; [exact Hle|]. split; [intros; apply Hs; lia|]. split; [intros _; exact I|].
             exists x, [m]. repeat split; auto; lia.
          -- repeat split; auto. exists x, []. rewrite app_nil_r. repeat split; auto; lia.
        * cbn [turn_res turn_scr]. split; [exact Hle|]. split; [intros; apply Hs; lia|]. apply Hpart. lia.
    - assert (Eeq : (blen got1 =? cap1) = true) by lia. rewrite Eeq.
      unfold f_done. destruct (unflat cr got1) as [cr' [m|]]; cbn [turn_res turn_scr].
      + split; [lia|]. split; [lia|]. split; [intros _; exact I|]. exists [], [m]. repeat split; auto; lia.
      + repeat split; auto; try discriminate. exists [], []. rewrite app_nil_r. repeat split; auto; lia.
  Qed.

  (* ---- one turn of the receive loop = feeding the bytes it read to the byte machine *)
  Lemma f_turn_spec st maxb scr pipe outs :
    fr_wf st ->
    let t := f_turn st maxb scr pipe outs in
    turn_scr lt t scr /\
    let '(st', outs', pipe') := turn_res t in
    fr_wf st' /\ exists x o, pipe = x ++ pipe' /\ outs' = outs ++ o /\
      f_feed (fr_norm st) x = (fr_norm st', o) /\
      (fr_err st = false -> 1 <= maxb -> 1 <= io_k scr -> pipe <> [] -> x <> []).
  Proof.
    intros Hwf. unfold FrameModel.f_turn.
    destruct ((maxb =? 0) || fr_err st) eqn:Estop.
    { cbn [turn_res turn_scr]. repeat split; auto. exists [], []. rewrite app_nil_r. repeat split; auto.
      intros He Hm. rewrite He in Estop. lia. }
    apply orb_false_iff in Estop. destruct Estop as [Emax Eerr].
    specialize (Hwf Eerr).
    set (cr := fr_cr st).
    (* the buffer in use *)
    assert (Hbuf : exists cap got, match fr_buf st with Some x => x | None => (f_scratch, []) end = (cap, got) /\
                     fr_norm st = fr_norm (mkR cap got cr) /\
                     (blen got < f_hs -> cap = f_scratch) /\ (f_hs <= blen got -> blen got < cap)).
    { destruct st as [[[cap got]|] e cr1]; cbn [fr_buf fr_err fr_cr] in *; subst e.
      - exists cap, got. repeat split; tauto.
      - exists f_scratch, []. split; [reflexivity|]. split; [reflexivity|]. split; [auto|].
        change (blen []) with 0. rewrite f_hs_is_8. lia. }
    destruct Hbuf as (cap & got & -> & Hnorm & Hcap & Hgot). rewrite Hnorm. clear Hnorm Hwf.
    assert (Hpp : pipe <> [] -> 0 < blen pipe) by apply blen_pos.
    unfold FrameModel.f_header_phase.
    destruct (blen got <? f_hs) eqn:Ehdr.
    - (* header phase *)
      destruct (f_recv_more got f_hs maxb scr pipe) as [[[[got1 maxb1] scr1] pipe1] short] eqn:Er.
      destruct (f_recv_more_spec _ _ _ _ _ _ _ _ _ _ Er) as (x1 & -> & Hp & Hb & -> & -> & ->).
      rewrite Ehdr in *.
      assert (Hx1 : 1 <= maxb -> 1 <= io_k scr -> pipe <> [] -> x1 <> []).
      { intros H1 H2 H3 ->. specialize (Hpp H3). change (blen []) with 0 in Hb. lia. }
      assert (Hpart : blen got + blen x1 < f_hs ->
                fr_wf (mkR cap (got ++ x1) cr) /\ exists x (o : list Msg), pipe = x ++ pipe1 /\ outs = outs ++ o /\
                  f_feed (fr_norm (mkR cap got cr)) x = (fr_norm (mkR cap (got ++ x1) cr), o) /\
                  (false = false -> 1 <= maxb -> 1 <= io_k scr -> pipe <> [] -> x <> [])).
      { intros Hlt. split; [intros _; cbn [fr_buf mkR]; rewrite blen_app; split; [intros; apply Hcap; lia|lia]|].
        exists x1, []. rewrite app_nil_r. repeat split; auto. apply feed_partial; [lia|]. left. lia. }
      destruct (blen x1 <? N.min maxb (f_hs - blen got)) eqn:Eshort.
      { cbn [turn_res turn_scr]. split; [exact I|]. rewrite Eerr. apply Hpart. lia. }
      assert (Hs : (length (io_tl scr) < length scr)%nat) by (apply io_tl_shorter; lia).
      rewrite blen_app.
      destruct (f_hs <=? blen got + blen x1) eqn:Ecomplete.
      + (* header complete *)
        assert (Hxne : x1 <> []) by (intros ->; change (blen []) with 0 in *; lia).
        pose proof (feed_hdr_exact x1 got cap cr (Hcap ltac:(lia)) Hxne ltac:(lia)) as Hf.
        unfold f_hdr_done in Hf.
        destruct (f_header cap (got ++ x1)) as [cap1|] eqn:Eh.
        * pose proof (f_header_ge _ _ _ Eh) as Hge.
          assert (Eg : (f_hs <=? blen (got ++ x1)) = true) by (rewrite blen_app; lia). rewrite Eg.
          pose proof (body_phase_spec cr cap1 (got ++ x1) (maxb - blen x1) (io_tl scr) pipe1 outs
                        ltac:(rewrite blen_app; lia) ltac:(rewrite blen_app; lia)) as Hbody. cbv zeta in Hbody.
          destruct Hbody as (Hle & _ & Hbody). split.
          { destruct (f_body_phase Msg CR unflat cr cap1 (got ++ x1) (maxb - blen x1) (io_tl scr) pipe1 outs);
              cbn [turn_scr] in *; [exact I|lia]. }
          destruct (turn_res (f_body_phase Msg CR unflat cr cap1 (got ++ x1) (maxb - blen x1) (io_tl scr) pipe1 outs))
            as [[st' outs'] pipe'].
          destruct Hbody as (Hwf' & x2 & o & Hp2 & Ho & Hfeed & Hx2 & _).
          split; auto. exists (x1 ++ x2), o. repeat split; auto.
          -- rewrite Hp, Hp2. now rewrite app_assoc.
          -- rewrite f_feed_app, Hf.
             destruct (blen (got ++ x1) =? cap1) eqn:Eeq.
             ++ rewrite (Hx2 ltac:(lia)). unfold f_done in *.
                destruct (unflat cr (got ++ x1)) as [cr' [m|]]; cbn [FrameModel.f_feed];
                  rewrite app_nil_r; exact Hfeed.
             ++ unfold mkR in Hfeed. rewrite Hfeed. reflexivity.
          -- intros _ H1 H2 H3 E. apply app_eq_nil in E. destruct E as [E _]. exact (Hx1 H1 H2 H3 E).
        * cbn [turn_res turn_scr]. split; [exact I|]. split; [intros E; discriminate|].
          exists x1, []. rewrite app_nil_r. repeat split; auto.
          rewrite Hf. f_equal. symmetry. apply fr_norm_nonempty. destruct got; [exact Hxne|discriminate].
      + (* maxBytes ran out inside the header *)
        assert (Eg : (f_hs <=? blen (got ++ x1)) = false) by (rewrite blen_app; lia). rewrite Eg.
        cbn [turn_res turn_scr]. split; [exact Hs|]. rewrite Eerr. apply Hpart. lia.
    - (* body phase straight away *)
      assert (Eg : (f_hs <=? blen got) = true) by lia. rewrite Eg.
      pose proof (body_phase_spec cr cap got maxb scr pipe outs ltac:(lia) ltac:(lia)) as Hbody. cbv zeta in Hbody.
      destruct Hbody as (_ & Hlt & Hbody). split; [apply Hlt; lia|].
      destruct (turn_res (f_body_phase Msg CR unflat cr cap got maxb scr pipe outs)) as [[st' outs'] pipe'].
      destruct Hbody as (Hwf' & x2 & o & Hp2 & Ho & Hfeed & _ & Hbx).
      assert (Ene : (blen got =? cap) = false) by lia. rewrite Ene in Hfeed.
      split; auto. exists x2, o. repeat split; auto.
      + rewrite mkR_norm by lia. exact Hfeed.
      + intros _ H1 H2 H3 ->. specialize (Hpp H3). specialize (Hbx ltac:(lia)). change (blen []) with 0 in Hbx. lia.
  Qed.

  (* ---- the whole loop, any fuel; the first turn of a call that may move a byte does *)
  Lemma f_in_loop_spec fuel : forall st maxb scr pipe outs st' outs' pipe',
    fr_wf st -> f_in_loop fuel st maxb scr pipe outs = (st', outs', pipe') ->
    exists x o, pipe = x ++ pipe' /\ outs' = outs ++ o /\ fr_wf st' /\ f_feed (fr_norm st) x = (fr_norm st', o) /\
      (fuel <> O -> fr_err st = false -> 1 <= maxb -> 1 <= io_k scr -> pipe <> [] -> x <> []).
  Proof.
    induction fuel as [|fuel IH]; intros st maxb scr pipe outs st' outs' pipe' Hwf H; cbn [FrameModel.f_in_loop] in H.
    - inversion H; subst. exists [], []. rewrite app_nil_r. repeat split; auto.
    - pose proof (f_turn_spec st maxb scr pipe outs Hwf) as [_ Ht].
      destruct (f_turn st maxb scr pipe outs) as [st1 o1 p1|st1 maxb1 scr1 p1 o1]; cbn [turn_res] in Ht;
        destruct Ht as (Hwf1 & x & o & Hp & Ho & Hf & Hx).
      + inversion H; subst. exists x, o. auto 10.
      + apply IH in H; auto. destruct H as (y & o2 & Hp2 & Ho2 & Hwf' & Hf2 & _).
        exists (x ++ y), (o ++ o2). repeat split; auto.
        * rewrite Hp, Hp2. now rewrite app_assoc.
        * rewrite Ho2, Ho. now rewrite app_assoc.
        * rewrite f_feed_app, Hf, Hf2. reflexivity.
        * intros _ He H1 H2 H3 E. apply app_eq_nil in E. destruct E as [E _]. exact (Hx He H1 H2 H3 E).
  Qed.

  (* a DoInput call = feeding the bytes it consumed to the byte machine *)
  Lemma f_do_input_spec st maxb scr pipe st' o pipe' :
    fr_wf st -> f_do_input st maxb scr pipe = (st', o, pipe') ->
    exists x, pipe = x ++ pipe' /\ fr_wf st' /\ f_feed (fr_norm st) x = (fr_norm st', o) /\
      (fr_err st = false -> 1 <= maxb -> 1 <= io_k scr -> pipe <> [] -> x <> []).
  Proof.
    unfold FrameModel.f_do_input. intros Hwf H.
    destruct (f_in_loop_spec _ _ _ _ _ _ _ _ _ Hwf H) as (x & o' & Hp & Ho & Hwf' & Hf & Hx).
    cbn in Ho. subst o'. exists x. repeat split; auto.
  Qed.

  (* ---- fuel adequacy: |scr|+1 turns always suffice *)
  Lemma f_in_fuel_enough fuel : forall st maxb scr pipe outs,
    fr_wf st -> (length scr < fuel)%nat ->
    f_in_loop fuel st maxb scr pipe outs = f_in_loop (S fuel) st maxb scr pipe outs.
  Proof.
    induction fuel as [|fuel IH]; intros st maxb scr pipe outs Hwf Hf; [lia|].
    remember (S fuel) as f1. rewrite Heqf1 at 1. cbn [FrameModel.f_in_loop].
    pose proof (f_turn_spec st maxb scr pipe outs Hwf) as [Hs Ht].
    destruct (f_turn st maxb scr pipe outs) as [st1 o1 p1|st1 maxb1 scr1 p1 o1]; [reflexivity|].
    cbn [turn_scr turn_res] in *. destruct Ht as (Hwf1 & _). subst f1. apply IH; auto. lia.
  Qed.

  (* ==================================================================== decoding a framed stream *)
  (* The premise about the codec pair (FlattenHeaderAndMessage on one side,
     UnflattenHeaderAndMessage on the other): starting from states in step, the sender's buffer
     for a body m of the domain is header (size word, in-range encoding word) ++ payload, the
     receiver turns that buffer back into m, and the states are in step again. *)
  Variable sync : CS -> CR -> Prop.
  Variable wfb : Msg -> Prop.
  Hypothesis sync0 : sync cs0 cr0.
  Hypothesis codec_sync : forall cs cr m, sync cs cr -> wfb m ->
    exists hdr payload cr',
      snd (flat cs m) = hdr ++ payload /\ blen hdr = f_hs /\
      body_size hdr = Some (blen payload) /\
      blen payload <= max_in /\ f_hs + blen payload < two32 /\
      unflat cr (snd (flat cs m)) = (cr', Some m) /\ sync (fst (flat cs m)) cr'.

  Definition idle (cr : CR) : frecv := mkFR None false cr.

  Lemma f_header_frame cap hdr payload :
    cap = f_scratch -> body_size hdr = Some (blen payload) ->
    blen payload <= max_in -> f_hs + blen payload < two32 ->
    f_header cap hdr = Some (f_hs + blen payload).
  Proof.
    intros -> Hb Hm Hs. unfold FrameModel.f_header. rewrite Hb.
    assert (Hnl : c_MUSCLE_NO_LIMIT = two32 - 1) by reflexivity.
    assert (E2 : (blen payload <=? max_in) && (blen payload <=? c_MUSCLE_NO_LIMIT - f_hs) = true).
    { rewrite f_hs_is_8 in *. unfold two32 in *. lia. }
    rewrite E2.
    assert (E3 : (f_hs <? f_scratch) = true) by (vm_compute; reflexivity). rewrite E3.
    destruct (blen payload <=? f_scratch - f_hs); [reflexivity|].
    unfold u32. rewrite N.mod_small by exact Hs. reflexivity.
  Qed.

  Lemma f_feed_frame cs cr m : sync cs cr -> wfb m ->
    exists cr', f_feed (idle cr) (snd (flat cs m)) = (idle cr', [m]) /\ sync (fst (flat cs m)) cr'.
  Proof.
    intros Hs Hm. destruct (codec_sync cs cr m Hs Hm) as (hdr & payload & cr' & Hflat & Hhl & Hbs & Hmax & Hsz & Hun & Hs').
    exists cr'. split; auto.
    rewrite Hflat in *. rewrite f_feed_app.
    assert (Hidle : idle cr = fr_norm (mkR f_scratch [] cr)) by reflexivity.
    rewrite Hidle.
    assert (Hne : hdr <> []) by (intros ->; change (blen []) with 0 in Hhl; rewrite f_hs_is_8 in Hhl; lia).
    rewrite (feed_hdr_exact hdr [] f_scratch cr eq_refl Hne); [|exact Hhl].
    cbn [app]. unfold f_hdr_done. rewrite (f_header_frame f_scratch hdr payload); auto. rewrite Hhl.
    destruct (f_hs =? f_hs + blen payload) eqn:Ez.
    - assert (payload = []) by (apply blen_0; lia). subst payload. rewrite !app_nil_r in *.
      unfold f_done. unfold bytes, byte in *. rewrite Hun. reflexivity.
    - assert (Hp : payload <> []) by (intros ->; change (blen []) with 0 in Ez; lia).
      fold (mkR (f_hs + blen payload) hdr cr).
      rewrite (feed_body_exact payload _ _ cr); auto; try (rewrite Hhl; lia).
      unfold f_done. unfold bytes, byte in *. rewrite Hun. reflexivity.
  Qed.

  Lemma f_feed_wire ms : Forall wfb ms -> forall cs cr, sync cs cr ->
    exists cr', f_feed (idle cr) (wire_from cs ms) = (idle cr', ms) /\ sync (cs_after cs ms) cr'.
  Proof.
    induction 1 as [|m t Hm _ IH]; intros cs cr Hs; cbn [wire_from cs_after].
    - exists cr. auto.
    - destruct (f_feed_frame cs cr m Hs Hm) as (cr1 & Hf1 & Hs1).
      destruct (IH _ _ Hs1) as (cr2 & Hf2 & Hs2).
      exists cr2. split; auto. rewrite f_feed_app, Hf1, Hf2. reflexivity.
  Qed.

  (* ==================================================================== end to end *)
  Definition f_wire (ms : list Msg) : bytes := wire_from cs0 ms.
  Definition f_sys0 := @sys0 Msg Msg fsend frecv (fs_init cs0) (fr_init cr0).

  (* the sender laws need no premise about the codec: they hold for any Message domain *)
  Lemma f_sender : sender_laws fs_queue f_do_output (fs_init cs0) wfb f_wire fs_rem (fun _ => 0%nat) fs_SI.
  Proof.
    split.
    - reflexivity.
    - split; [|reflexivity]. split; [reflexivity|]. exists []. auto.
    - intros s ms m _ _ [Hwf (dn & Hms & Hcs)]. split.
      + split; [exact Hwf|]. exists dn. cbn. split; [now rewrite Hms, app_assoc|exact Hcs].
      + exists (snd (flat (cs_after cs0 ms) m)). split.
        * unfold fs_rem. cbn [fs_queue fs_buf fs_off fs_q fs_cs]. rewrite wire_from_app, app_assoc.
          cbn [wire_from]. rewrite app_nil_r. do 2 f_equal. rewrite Hms, cs_after_app, Hcs. reflexivity.
        * unfold f_wire. rewrite wire_from_app. cbn [wire_from]. now rewrite app_nil_r.
    - intros s ms maxb scr s' x _ HSI H. destruct (f_do_output_spec ms _ _ _ _ _ HSI H) as (? & ? & _). auto.
    - intros s ms maxb scr s' x _ HSI H. destruct (f_do_output_spec ms _ _ _ _ _ HSI H) as (_ & _ & Hx). auto.
  Qed.

  (* the receiver decodes: byte machine f_byte, seen through fr_norm; final = idle, dead = error status *)
  Lemma f_decoder :
    decoder_laws f_do_input (fr_init cr0) wfb f_wire (fun ms : list Msg => ms) (fun o : list Msg => o)
      f_byte fr_norm fr_wf (fun q => exists cr, q = idle cr) (fun q => fr_err q = true).
  Proof.
    split; auto.
    - intros _; exact I.
    - intros ms r c maxb scr pipe rest r' o' pipe' _ _ Hwf H.
      destruct (f_do_input_spec _ _ _ _ _ _ _ Hwf H) as (x & Hp & Hwf' & Hf & _). eauto.
    - intros ms Hwf. destruct (f_feed_wire ms Hwf cs0 cr0 sync0) as (cr' & Hall & _). eauto.
    - intros q He b. now apply f_byte_err.
    - intros q [cr ->]. discriminate.
    - intros ms r c maxb scr pipe rest r' o' pipe' _ _ Hwf He H Hne Hm Hk.
      destruct (f_do_input_spec _ _ _ _ _ _ _ Hwf H) as (x & -> & _ & _ & Hx).
      apply app_shorter, Hx; auto. rewrite fr_err_norm in He. now destruct (fr_err r).
  Qed.
End FrameProofs.
