(* C12 -- Gw/TunnelProofs.v: proofs about the PacketTunnelIOGateway model (Gw/Tunnel.v): constants, the wire
   codec (parse o encode, also of a truncated datagram), the receive-state table seen from one source, and the
   two things a datagram can be to the receiver (recv_packet_cases). *)
From Coq Require Import List NArith Bool Lia.
From Coq Require Import Strings.Byte.
From Muscle Require Import Common.LE Gw.Tunnel.
Import ListNotations.
Local Open Scope N_scope.

(* ------------------------------------------------------------------ translated constants *)

(* side conditions on the translated constants: a changed constant re-checks these *)
Lemma FHS_val : FHS = 24.
Proof. reflexivity. Qed.

Lemma MAX_STATES_pos : 0 < MAX_STATES.
Proof. reflexivity. Qed.

Lemma lenN_enc_frag f : lenN (enc_frag f) = FHS + lenN (f_data f).
Proof. unfold enc_frag. rewrite !lenN_app, !lenN_le32, FHS_val. lia. Qed.

Lemma clamp_mtu_gt m : FHS < clamp_mtu m.
Proof. unfold clamp_mtu. lia. Qed.

(* ------------------------------------------------------------------ small list facts *)

Lemma lenN_length {A} (l : list A) : N.to_nat (lenN l) = length l.
Proof. unfold lenN. apply Nat2N.id. Qed.

Lemma takeN_app_ge {A} n (a b : list A) : lenN a <= n -> takeN n (a ++ b) = a ++ takeN (n - lenN a) b.
Proof.
  unfold takeN, lenN. intros H. rewrite firstn_app.
  rewrite firstn_all2 by lia. f_equal. f_equal. lia.
Qed.

Lemma dropN_app_ge {A} n (a b : list A) : lenN a <= n -> dropN n (a ++ b) = dropN (n - lenN a) b.
Proof.
  unfold dropN, lenN. intros H. rewrite skipn_app.
  rewrite skipn_all2 by lia. cbn. f_equal. lia.
Qed.

Lemma takeN_takeN {A} a b (l : list A) : takeN a (takeN b l) = takeN (N.min a b) l.
Proof. unfold takeN. rewrite firstn_firstn. f_equal. lia. Qed.

Lemma takeN_add {A} a b (l : list A) : takeN (a + b) l = takeN a l ++ takeN b (dropN a l).
Proof.
  unfold takeN, dropN. rewrite N2Nat.inj_add. generalize (N.to_nat a) as n. intros n. revert l.
  induction n as [|n IH]; intros l; [reflexivity|].
  destruct l as [|x l]; cbn [Nat.add firstn skipn app]; [now rewrite firstn_nil|now rewrite IH].
Qed.

Lemma lenN_repeat {A} (x : A) n : lenN (repeat x n) = N.of_nat n.
Proof. unfold lenN. now rewrite repeat_length. Qed.

Lemma lenN_junk n : lenN (junk n) = n.
Proof. unfold junk. rewrite lenN_repeat. apply N2Nat.id. Qed.

Lemma list_eq_of_takeN {A} (a b : list A) : lenN a = lenN b -> takeN (lenN a) a = takeN (lenN a) b -> a = b.
Proof.
  intros HL HT. rewrite takeN_all in HT by lia. rewrite HL in HT. rewrite takeN_all in HT by lia. exact HT.
Qed.

Lemma run_app {S O P} (step : S -> O -> S * list P) (run : S -> list O -> S * list P) :
  (forall st, run st [] = (st, [])) ->
  (forall st o ops, run st (o :: ops) =
     let '(st1, p1) := step st o in let '(st2, p2) := run st1 ops in (st2, p1 ++ p2)) ->
  forall ops1 ops2 st,
    run st (ops1 ++ ops2) = let '(st1, p1) := run st ops1 in let '(st2, p2) := run st1 ops2 in (st2, p1 ++ p2).
Proof.
  intros Hnil Hcons. induction ops1 as [|o ops1 IH]; intros ops2 st; cbn [app].
  - rewrite Hnil. now destruct (run st ops2).
  - rewrite !Hcons. destruct (step st o) as [st1 p1]. rewrite IH.
    destruct (run st1 ops1) as [st2 p2]. destruct (run st2 ops2) as [st3 p3]. now rewrite app_assoc.
Qed.

(* closed arithmetic side conditions of the worked examples *)
Ltac vm_decide := vm_compute; (reflexivity || discriminate || exact I).

(* ------------------------------------------------------------------ wire codec *)

Definition wire_ok (f : frag) : Prop :=
  f_magic f < two32 /\ f_sex f < two32 /\ f_id f < two32 /\ f_off f < two32
  /\ f_total f < two32 /\ lenN (f_data f) < two32.

Definition sex_ok (rc : rcfg) (sex : N) : bool := (rc_sex rc =? 0) || negb (rc_sex rc =? sex).

(* what the fragment loop makes of a packet that really is a sequence of encoded fragments *)
Fixpoint accepted (rc : rcfg) (fs : list frag) : list frag :=
  match fs with
  | [] => []
  | f :: fs' =>
      if (f_magic f =? rc_magic rc) && sex_ok rc (f_sex f) then
        if f_total f <=? rc_max_in rc then f :: accepted rc fs' else accepted rc fs'
      else []
  end.

Lemma enc_frags_cons f fs : enc_frags (f :: fs) = enc_frag f ++ enc_frags fs.
Proof. reflexivity. Qed.

Lemma enc_frags_app a b : enc_frags (a ++ b) = enc_frags a ++ enc_frags b.
Proof. unfold enc_frags. now rewrite map_app, concat_app. Qed.

Lemma length_enc_frags fs : (length fs <= length (enc_frags fs))%nat.
Proof.
  induction fs as [|f fs IH]; [cbn; lia|].
  rewrite enc_frags_cons, app_length. cbn [length].
  pose proof (lenN_enc_frag f) as H. unfold lenN in H. rewrite FHS_val in H. lia.
Qed.

Definition hdr_of (f : frag) : list byte :=
  le32 (f_magic f) ++ le32 (f_sex f) ++ le32 (f_id f) ++ le32 (f_off f)
  ++ le32 (lenN (f_data f)) ++ le32 (f_total f).

Lemma enc_frag_hdr f : enc_frag f = hdr_of f ++ f_data f.
Proof. unfold enc_frag, hdr_of. now rewrite <- !app_assoc. Qed.

Lemma lenN_hdr_of f : lenN (hdr_of f) = FHS.
Proof. unfold hdr_of. rewrite !lenN_app, !lenN_le32, FHS_val. reflexivity. Qed.

(* one iteration of the fragment loop on a well-formed header followed by anything *)
Lemma parse_hdr fuel rc f rest :
  wire_ok f ->
  parse (S fuel) rc (hdr_of f ++ rest) =
    if (f_magic f =? rc_magic rc) && sex_ok rc (f_sex f) && (lenN (f_data f) <=? lenN rest) then
      let tl := parse fuel rc (dropN (lenN (f_data f)) rest) in
      if f_total f <=? rc_max_in rc
      then mkFrag (f_magic f) (f_sex f) (f_id f) (f_off f) (f_total f) (takeN (lenN (f_data f)) rest) :: tl
      else tl
    else [].
Proof.
  intros (Hm & Hs & Hi & Ho & Ht & Hd). cbn [parse].
  assert (HL : (FHS <=? lenN (hdr_of f ++ rest)) = true).
  { apply N.leb_le. rewrite lenN_app, lenN_hdr_of. lia. }
  rewrite HL. unfold hdr_of. rewrite <- !app_assoc.
  do 6 rewrite rd32_le32. rewrite !u32_small by assumption. reflexivity.
Qed.

Lemma parse_step fuel rc f tail :
  wire_ok f ->
  parse (S fuel) rc (enc_frag f ++ tail) =
    if (f_magic f =? rc_magic rc) && sex_ok rc (f_sex f) then
      if f_total f <=? rc_max_in rc then f :: parse fuel rc tail else parse fuel rc tail
    else [].
Proof.
  intros Hw. rewrite enc_frag_hdr, <- app_assoc, parse_hdr by exact Hw.
  assert (HC : (lenN (f_data f) <=? lenN (f_data f ++ tail)) = true).
  { apply N.leb_le. rewrite lenN_app. lia. }
  rewrite HC, andb_true_r, takeN_app_exact, dropN_app_exact. now destruct f.
Qed.

Lemma parse_nil fuel rc : parse fuel rc [] = [].
Proof. destruct fuel; reflexivity. Qed.

Lemma parse_enc rc fs : forall fuel,
  Forall wire_ok fs -> (length fs <= fuel)%nat ->
  parse fuel rc (enc_frags fs) = accepted rc fs.
Proof.
  induction fs as [|f fs IH]; intros fuel HW HF.
  - cbn. apply parse_nil.
  - destruct fuel as [|fuel]; [cbn in HF; lia|].
    inversion HW as [|? ? Hf Hfs]; subst.
    rewrite enc_frags_cons, parse_step by assumption.
    cbn [accepted]. cbn [length] in HF.
    rewrite IH by (assumption || lia). reflexivity.
Qed.

Lemma parse_cut fuel rc f d' :
  wire_ok f -> lenN d' < lenN (f_data f) -> parse fuel rc (hdr_of f ++ d') = [].
Proof.
  intros Hw Hshort. destruct fuel as [|fuel]; [reflexivity|]. rewrite parse_hdr by exact Hw.
  assert (HC : (lenN (f_data f) <=? lenN d') = false) by (apply N.leb_gt; exact Hshort).
  now rewrite HC, andb_false_r.
Qed.

Lemma parse_short fuel rc bs : lenN bs < FHS -> parse fuel rc bs = [].
Proof.
  intros H. destruct fuel as [|fuel]; [reflexivity|]. cbn [parse].
  assert (E : (FHS <=? lenN bs) = false) by (apply N.leb_gt; exact H). now rewrite E.
Qed.

(* a receiver with a smaller MTU sees only a prefix of the datagram: what it extracts is what the loop makes of some
   of the leading fragments (a cut-off fragment fails the "chunk fits" test and ends the loop) *)
Lemma parse_truncated rc fs : forall fuel k,
  Forall wire_ok fs -> exists fs1 fs2, fs = fs1 ++ fs2 /\ parse fuel rc (takeN k (enc_frags fs)) = accepted rc fs1.
Proof.
  induction fs as [|f fs IH]; intros fuel k HW.
  - exists [], []. unfold takeN. cbn [enc_frags map concat]. now rewrite firstn_nil, parse_nil.
  - inversion HW as [|? ? Hf Hfs]; subst. rewrite enc_frags_cons.
    assert (Hnone : parse fuel rc (takeN k (enc_frag f ++ enc_frags fs)) = [] ->
                    exists fs1 fs2, f :: fs = fs1 ++ fs2 /\ parse fuel rc (takeN k (enc_frag f ++ enc_frags fs)) = accepted rc fs1).
    { intros E. now exists [], (f :: fs). }
    destruct (N.le_gt_cases (lenN (enc_frag f)) k) as [Hk|Hk].
    + rewrite takeN_app_ge in * by exact Hk. destruct fuel as [|fuel]; [now apply Hnone|].
      destruct (IH fuel (k - lenN (enc_frag f)) Hfs) as (fs1 & fs2 & -> & E).
      exists (f :: fs1), fs2. split; [reflexivity|]. rewrite parse_step by exact Hf. cbn [accepted]. now rewrite E.
    + apply Hnone. rewrite takeN_app_le by lia. rewrite lenN_enc_frag in Hk.
      destruct (N.lt_ge_cases k FHS) as [Hk2|Hk2].
      * apply parse_short. rewrite lenN_takeN. lia.
      * rewrite enc_frag_hdr, takeN_app_ge by (rewrite lenN_hdr_of; exact Hk2).
        apply parse_cut; [exact Hf|]. rewrite lenN_takeN, lenN_hdr_of. lia.
Qed.

(* a datagram that does not start with our magic (or is too short to have one) yields no fragment *)
Definition foreign (magic : N) (p : packet) : Prop := first_word_is magic p = false.

Lemma parse_foreign fuel rc bs : first_word_is (rc_magic rc) bs = false -> parse fuel rc bs = [].
Proof.
  intros H. destruct fuel as [|fuel]; [reflexivity|]. cbn [parse].
  destruct (FHS <=? lenN bs); [|reflexivity].
  unfold first_word_is in H.
  destruct (rd32 bs) as [[magic b1]|]; [|reflexivity].
  destruct (rd32 b1) as [[sex b2]|]; [|reflexivity].
  destruct (rd32 b2) as [[id b3]|]; [|reflexivity].
  destruct (rd32 b3) as [[off b4]|]; [|reflexivity].
  destruct (rd32 b4) as [[csz b5]|]; [|reflexivity].
  destruct (rd32 b5) as [[total b6]|]; [|reflexivity].
  unfold frag_ok. rewrite H. reflexivity.
Qed.

Lemma first_word_takeN magic n p : 4 <= n -> first_word_is magic (takeN n p) = first_word_is magic p.
Proof.
  intros Hn. unfold first_word_is, takeN.
  destruct p as [|b0 [|b1 [|b2 [|b3 r]]]].
  - now rewrite firstn_nil.
  - rewrite firstn_all2 by (cbn; lia). reflexivity.
  - rewrite firstn_all2 by (cbn; lia). reflexivity.
  - rewrite firstn_all2 by (cbn; lia). reflexivity.
  - destruct (N.to_nat n) as [|[|[|[|k]]]] eqn:E; try lia. cbn [firstn rd32]. reflexivity.
Qed.

(* ------------------------------------------------------------------ the table seen from one source *)

Definition tbl_wf (t : table) : Prop := NoDup (map fst t).

(* the evolution of one source's receive state, without the table around it *)
Definition rs_step (o : option rstate) (f : frag) : option rstate * list msg :=
  match o with
  | Some rs => let '(rs', out) := accept (restart_if_new rs f) f in (Some rs', out)
  | None =>
      if f_off f =? 0 then
        let '(rs', out) := accept (mkR (f_id f) 0 (junk (f_total f))) f in (Some rs', out)
      else (None, [])
  end.

Fixpoint rs_steps (o : option rstate) (fs : list frag) : option rstate * list msg :=
  match fs with
  | [] => (o, [])
  | f :: fs' =>
      let '(o1, out1) := rs_step o f in
      let '(o2, out2) := rs_steps o1 fs' in (o2, out1 ++ out2)
  end.

Lemma tbl_find_app a t1 t2 :
  tbl_find a (t1 ++ t2) = match tbl_find a t1 with Some rs => Some rs | None => tbl_find a t2 end.
Proof.
  induction t1 as [|[b rs] t1 IH]; [reflexivity|]. cbn [app tbl_find].
  destruct (a =? b); [reflexivity|exact IH].
Qed.

Lemma tbl_find_none_iff a t : tbl_find a t = None <-> ~ In a (map fst t).
Proof.
  induction t as [|[b rs] t IH]; cbn [tbl_find map fst In].
  - tauto.
  - destruct (N.eqb_spec a b) as [E|E].
    + subst. split; [discriminate|]. intros H. exfalso. apply H. now left.
    + rewrite IH. split; intros H; [intros [H1|H1]; [congruence|tauto]|tauto].
Qed.

Lemma tbl_remove_keys_incl a t b : In b (map fst (tbl_remove a t)) -> In b (map fst t).
Proof.
  induction t as [|[c rs] t IH]; cbn [tbl_remove map fst In]; [tauto|].
  destruct (a =? c); cbn [map fst In]; tauto.
Qed.

Lemma tbl_remove_wf a t : tbl_wf t -> tbl_wf (tbl_remove a t).
Proof.
  unfold tbl_wf. induction t as [|[c rs] t IH]; cbn [tbl_remove map fst]; intros H; [exact H|].
  inversion H as [|? ? Hn Hd]; subst.
  destruct (a =? c); [exact Hd|]. cbn [map fst]. constructor; [|now apply IH].
  intros Hin. apply Hn. eapply tbl_remove_keys_incl; eassumption.
Qed.

Lemma tbl_find_remove_same a t : tbl_wf t -> tbl_find a (tbl_remove a t) = None.
Proof.
  unfold tbl_wf. induction t as [|[c rs] t IH]; cbn [tbl_remove map fst tbl_find]; intros H; [reflexivity|].
  inversion H as [|? ? Hn Hd]; subst.
  destruct (N.eqb_spec a c) as [E|E].
  - subst. now apply tbl_find_none_iff.
  - cbn [tbl_find]. destruct (N.eqb_spec a c); [congruence|]. now apply IH.
Qed.

Lemma tbl_find_remove_other a b t : a <> b -> tbl_find b (tbl_remove a t) = tbl_find b t.
Proof.
  intros Hab. induction t as [|[c rs] t IH]; cbn [tbl_remove tbl_find]; [reflexivity|].
  destruct (N.eqb_spec a c) as [E|E].
  - subst. destruct (N.eqb_spec b c); [congruence|reflexivity].
  - cbn [tbl_find]. destruct (b =? c); [reflexivity|exact IH].
Qed.

Lemma skipn_keys_incl {A B} n (t : list (A * B)) b : In b (map fst (skipn n t)) -> In b (map fst t).
Proof.
  revert t. induction n as [|n IH]; intros t; [cbn; tauto|].
  destruct t as [|x t]; cbn [skipn map In]; [tauto|]. intros H. right. now apply IH.
Qed.

Lemma skipn_NoDup {A} n (l : list A) : NoDup l -> NoDup (skipn n l).
Proof.
  revert l. induction n as [|n IH]; intros l H; [exact H|].
  destruct l as [|x l]; [exact H|]. cbn [skipn]. inversion H; subst. now apply IH.
Qed.

Lemma tbl_evict_wf t : tbl_wf t -> tbl_wf (tbl_evict t).
Proof.
  unfold tbl_wf, tbl_evict, dropN. intros H. rewrite <- skipn_map. now apply skipn_NoDup.
Qed.

Lemma tbl_evict_find_none a t : tbl_find a t = None -> tbl_find a (tbl_evict t) = None.
Proof.
  rewrite !tbl_find_none_iff. intros H Hin. apply H.
  unfold tbl_evict, dropN in Hin. eapply skipn_keys_incl; eassumption.
Qed.

Lemma tbl_evict_small t : lenN t <= MAX_STATES -> tbl_evict t = t.
Proof. unfold tbl_evict. intros H. replace (lenN t - MAX_STATES) with 0 by lia. apply dropN_0. Qed.

(* eviction keeps an entry or loses it; it never alters one *)
Lemma tbl_evict_find a t : tbl_wf t -> tbl_find a (tbl_evict t) = tbl_find a t \/ tbl_find a (tbl_evict t) = None.
Proof.
  unfold tbl_evict, dropN. generalize (N.to_nat (lenN t - MAX_STATES)) as n.
  intros n. revert t. induction n as [|n IH]; intros t Hwf; [left; reflexivity|].
  destruct t as [|[c rs] t]; [left; reflexivity|].
  cbn [skipn tbl_find]. unfold tbl_wf in Hwf. cbn [map fst] in Hwf. inversion Hwf as [|? ? Hn Hd]; subst.
  destruct (N.eqb_spec a c) as [E|E].
  - subst. right. apply tbl_find_none_iff. intros Hin. apply Hn. eapply skipn_keys_incl; eassumption.
  - now apply IH.
Qed.

Lemma app_keys_wf t a (rs : rstate) : tbl_wf t -> tbl_find a t = None -> tbl_wf (t ++ [(a, rs)]).
Proof.
  unfold tbl_wf. intros Hwf Hn. rewrite map_app. cbn [map fst].
  apply (NoDup_Add (Add_app a (map fst t) [])). rewrite app_nil_r. split; [exact Hwf|now apply tbl_find_none_iff].
Qed.

(* the table with a's entry taken out of it: found and removed (GetAndMoveToBack), or not there, and then the
   oldest entries make room *)
Definition tbl_without (a : addr) (t : table) : table :=
  match tbl_find a t with Some _ => tbl_remove a t | None => tbl_evict t end.

(* recv_frag is rs_step on the source's own entry, which goes to the back of the table *)
Lemma recv_frag_eq t a f :
  recv_frag t a f =
    let '(o', out) := rs_step (tbl_find a t) f in
    (match o' with Some rs' => tbl_without a t ++ [(a, rs')] | None => tbl_without a t end, out).
Proof.
  unfold recv_frag, rs_step, tbl_without. destruct (tbl_find a t) as [rs|].
  - now destruct (accept (restart_if_new rs f) f).
  - destruct (f_off f =? 0); [|reflexivity]. now destruct (accept (mkR (f_id f) 0 (junk (f_total f))) f).
Qed.

Lemma recv_frag_own t a f :
  tbl_wf t ->
  let '(t', out) := recv_frag t a f in
  let '(o', out') := rs_step (tbl_find a t) f in
  tbl_wf t' /\ tbl_find a t' = o' /\ out = out'.
Proof.
  intros Hwf. rewrite recv_frag_eq.
  assert (H0 : tbl_wf (tbl_without a t) /\ tbl_find a (tbl_without a t) = None).
  { unfold tbl_without. destruct (tbl_find a t) eqn:Hf.
    - split; [now apply tbl_remove_wf|now apply tbl_find_remove_same].
    - split; [now apply tbl_evict_wf|now apply tbl_evict_find_none]. }
  destruct (rs_step (tbl_find a t) f) as [[rs'|] out]; [|tauto].
  split; [now apply app_keys_wf|]. split; [|reflexivity].
  rewrite tbl_find_app, (proj2 H0). cbn [tbl_find]. now rewrite N.eqb_refl.
Qed.

Lemma recv_frag_other_eq t a b f :
  a <> b -> tbl_find b (fst (recv_frag t a f)) = tbl_find b (tbl_without a t).
Proof.
  intros Hab. rewrite recv_frag_eq. destruct (rs_step (tbl_find a t) f) as [[rs'|] out]; [|reflexivity].
  cbn [fst]. rewrite tbl_find_app. destruct (tbl_find b (tbl_without a t)); [reflexivity|].
  cbn [tbl_find]. destruct (N.eqb_spec b a); [congruence|reflexivity].
Qed.

(* so it is kept as it is, or lost (evicted), never altered *)
Lemma recv_frag_other t a b f :
  tbl_wf t -> a <> b ->
  tbl_find b (fst (recv_frag t a f)) = tbl_find b t \/ tbl_find b (fst (recv_frag t a f)) = None.
Proof.
  intros Hwf Hab. rewrite recv_frag_other_eq by exact Hab. unfold tbl_without.
  destruct (tbl_find a t); [left; now apply tbl_find_remove_other|now apply tbl_evict_find].
Qed.

Lemma recv_frags_own t a fs :
  tbl_wf t ->
  let '(t', out) := recv_frags t a fs in
  let '(o', out') := rs_steps (tbl_find a t) fs in
  tbl_wf t' /\ tbl_find a t' = o' /\ out = out'.
Proof.
  revert t. induction fs as [|f fs IH]; intros t Hwf.
  - cbn. auto.
  - cbn [recv_frags rs_steps].
    pose proof (recv_frag_own t a f Hwf) as H1.
    destruct (recv_frag t a f) as [t1 o1]. destruct (rs_step (tbl_find a t) f) as [r1 p1].
    destruct H1 as (Hwf1 & Hf1 & Ho1). subst.
    specialize (IH t1 Hwf1).
    destruct (recv_frags t1 a fs) as [t2 o2]. destruct (rs_steps (tbl_find a t1) fs) as [r2 p2].
    destruct IH as (Hwf2 & Hf2 & Ho2). subst. auto.
Qed.

Lemma recv_frags_other t a b fs :
  tbl_wf t -> a <> b ->
  tbl_find b (fst (recv_frags t a fs)) = tbl_find b t \/ tbl_find b (fst (recv_frags t a fs)) = None.
Proof.
  intros Hwf Hab. revert t Hwf. induction fs as [|f fs IH]; intros t Hwf.
  - left. reflexivity.
  - cbn [recv_frags].
    pose proof (recv_frag_own t a f Hwf) as H1.
    pose proof (recv_frag_other t a b f Hwf Hab) as H2.
    destruct (recv_frag t a f) as [t1 o1]. destruct (rs_step (tbl_find a t) f) as [r1 p1].
    destruct H1 as (Hwf1 & _ & _). cbn [fst] in H2.
    specialize (IH t1 Hwf1).
    destruct (recv_frags t1 a fs) as [t2 o2]. cbn [fst] in *.
    destruct IH as [E|E]; [|right; exact E]. rewrite E. exact H2.
Qed.

(* what the fragment loop finds in a datagram *)
Definition frags_of (rc : rcfg) (p : packet) : list frag :=
  let bs := takeN (rc_mtu rc) p in parse (length bs) rc bs.

(* A datagram is either handed over verbatim (misc-data mode; the table is not touched) or it is the
   fragments found in it.  An empty read is the second case with no fragment. *)
Lemma recv_packet_cases rc a p :
  let bs := takeN (rc_mtu rc) p in
  ((forall t, recv_packet rc t a p = (t, [(a, bs)]))
   /\ rc_misc rc = true /\ (lenN bs < FHS \/ first_word_is (rc_magic rc) bs = false))
  \/ (forall t, recv_packet rc t a p = let '(t', out) := recv_frags t a (frags_of rc p) in (t', map (pair a) out)).
Proof.
  unfold frags_of. cbv zeta. unfold recv_packet.
  destruct (lenN (takeN (rc_mtu rc) p) =? 0) eqn:Hz.
  { right. apply N.eqb_eq, lenN_0_nil in Hz. rewrite Hz. reflexivity. }
  destruct (rc_misc rc); [|now right]. cbn [andb].
  destruct ((lenN (takeN (rc_mtu rc) p) <? FHS) || negb (first_word_is (rc_magic rc) (takeN (rc_mtu rc) p))) eqn:Hm;
    [left|now right].
  split; [reflexivity|]. split; [reflexivity|].
  apply orb_prop in Hm as [Hm|Hm]; [left; now apply N.ltb_lt|right; now apply negb_true_iff].
Qed.

Lemma filter_tag_all {X} a (l : list (N * X)) :
  (forall d, In d l -> fst d = a) -> filter (fun d => fst d =? a) l = l.
Proof.
  induction l as [|d l IH]; intros H; [reflexivity|]. cbn [filter]. cbv beta.
  rewrite (H d (or_introl eq_refl)), N.eqb_refl. f_equal. apply IH. intros d' Hd'. apply H. now right.
Qed.

Lemma filter_tag_none {X} a b (l : list (N * X)) :
  b <> a -> (forall d, In d l -> fst d = b) -> filter (fun d => fst d =? a) l = [].
Proof.
  intros Hba. induction l as [|d l IH]; intros H; [reflexivity|]. cbn [filter]. cbv beta.
  rewrite (H d (or_introl eq_refl)). destruct (N.eqb_spec b a); [congruence|].
  apply IH. intros d' Hd'. apply H. now right.
Qed.
