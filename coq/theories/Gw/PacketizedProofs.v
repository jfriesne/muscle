(* C12 -- proofs about the PacketizedProxyDataIO model (Gw/Packetized.v): for every way the child
   stream cuts the bytes up, on the writing and on the reading side, the packets come out once each,
   in order, unchanged. *)
From Coq Require Import List NArith Bool Lia.
From Coq Require Import Strings.Byte.
From Muscle Require Import Common.LE Gw.Packetized.
Import ListNotations.
Local Open Scope N_scope.

Lemma lenN_frame p : lenN (frame p) = SZW + lenN p.
Proof. unfold frame. rewrite lenN_app, lenN_le32. reflexivity. Qed.

Lemma frames_cons p ps : frames (p :: ps) = frame p ++ frames ps.
Proof. reflexivity. Qed.

Lemma frames_app a b : frames (a ++ b) = frames a ++ frames b.
Proof. unfold frames. now rewrite map_app, concat_app. Qed.

Lemma dropN_dropN {A} a b (l : list A) : dropN a (dropN b l) = dropN (b + a) l.
Proof.
  unfold dropN. rewrite N2Nat.inj_add. generalize (N.to_nat a) as n, (N.to_nat b) as k. intros n k. revert l.
  induction k as [|k IH]; intros l; [reflexivity|].
  destruct l as [|x l]; cbn [skipn Nat.add]; [now rewrite !skipn_nil|apply IH].
Qed.

Lemma dropN_all {A} n (l : list A) : lenN l <= n -> dropN n l = [].
Proof. unfold dropN, lenN. intros. apply skipn_all2. lia. Qed.

(* ------------------------------------------------------------------ writer *)

(* the packets a writing session took (Write() returned their size); empty packets are excluded by premise *)
Fixpoint taken (ops : list wop) (rs : list wres) : list (list byte) :=
  match ops, rs with
  | WWrite p _ _ :: ops', WTook n :: rs' => if n =? 0 then taken ops' rs' else p :: taken ops' rs'
  | WWrite _ _ _ :: ops', WErr :: rs' => taken ops' rs'
  | WFlush _ :: ops', _ => taken ops' rs
  | _, _ => []
  end.

Definition pw_ok (st : pwtr) : Prop := pw_sent st <= lenN (pw_buf st) /\ (pw_buf st = [] -> pw_sent st = 0).

(* what is still to go out *)
Definition pw_rest (st : pwtr) : list byte := dropN (pw_sent st) (pw_buf st).

Lemma pw_flush_spec st acc st' out :
  pw_ok st -> pw_flush st acc = (st', out) ->
  pw_ok st' /\ out ++ pw_rest st' = pw_rest st.
Proof.
  intros [Hle Hnil]. unfold pw_flush, pw_rest.
  destruct (pw_sent st <? lenN (pw_buf st)) eqn:Hb.
  - apply N.ltb_lt in Hb.
    set (rest := dropN (pw_sent st) (pw_buf st)).
    assert (Hr : lenN rest = lenN (pw_buf st) - pw_sent st) by (unfold rest; apply lenN_dropN).
    destruct (pw_sent st + N.min acc (lenN rest) =? lenN (pw_buf st)) eqn:Hf; intros E; injection E as <- <-.
    + apply N.eqb_eq in Hf. split; [split; cbn; [change (lenN (@nil byte)) with 0; lia|reflexivity]|].
      cbn [pw_sent pw_buf]. unfold dropN at 1. cbn. rewrite app_nil_r. apply takeN_all. lia.
    + apply N.eqb_neq in Hf. unfold pw_ok. cbn [pw_sent pw_buf]. split.
      * split; [lia|]. intros E. rewrite E in Hb. change (lenN (@nil byte)) with 0 in Hb. lia.
      * unfold rest. rewrite <- dropN_dropN. apply takeN_dropN.
  - intros E. injection E as <- <-. split; [split; assumption|reflexivity].
Qed.

Lemma pw_rest_fresh p : pw_rest (mkPW (frame p) 0) = frame p.
Proof. reflexivity. Qed.

Lemma pw_ok_fresh p : pw_ok (mkPW (frame p) 0).
Proof.
  split; cbn [pw_sent pw_buf]; [lia|]. intros E. exfalso.
  assert (H : lenN (frame p) = 0) by now rewrite E. rewrite lenN_frame in H. unfold SZW in H. lia.
Qed.

Lemma pw_not_buffered_rest st : pw_ok st -> pw_buffered st = false -> pw_rest st = [].
Proof.
  intros [Hle _] Hb. unfold pw_buffered in Hb. apply N.ltb_ge in Hb. unfold pw_rest. apply dropN_all. lia.
Qed.

Lemma pwrite_spec mtu st p a1 a2 st' out r :
  pw_ok st -> 0 < lenN p ->
  pwrite mtu st p a1 a2 = (st', out, r) ->
  pw_ok st' /\
  out ++ pw_rest st' = pw_rest st ++ (match r with WTook n => if n =? 0 then [] else frame p | WErr => [] end).
Proof.
  intros Hok Hp. unfold pwrite.
  destruct (mtu <? lenN p) eqn:Hm.
  { intros E. injection E as <- <- <-. rewrite !app_nil_r. auto. }
  assert (Hnz : (lenN p =? 0) = false) by (apply N.eqb_neq; lia).
  destruct (pw_buffered st) eqn:Hb.
  - destruct (pw_flush st a1) as [st1 o1] eqn:E1.
    destruct (pw_flush_spec _ _ _ _ Hok E1) as [Hok1 Ho1].
    destruct (pw_buffered st1) eqn:Hb1.
    + intros E. injection E as <- <- <-. cbn [N.eqb]. rewrite app_nil_r. auto.
    + destruct (pw_flush (mkPW (frame p) 0) a2) as [st2 o2] eqn:E2.
      destruct (pw_flush_spec _ _ _ _ (pw_ok_fresh p) E2) as [Hok2 Ho2].
      intros E. injection E as <- <- <-. rewrite Hnz. split; [exact Hok2|].
      rewrite <- app_assoc, Ho2, pw_rest_fresh, <- Ho1.
      now rewrite (pw_not_buffered_rest st1 Hok1 Hb1), app_nil_r.
  - destruct (pw_flush (mkPW (frame p) 0) a1) as [st1 o1] eqn:E1.
    destruct (pw_flush_spec _ _ _ _ (pw_ok_fresh p) E1) as [Hok1 Ho1].
    intros E. injection E as <- <- <-. rewrite Hnz. split; [exact Hok1|].
    now rewrite Ho1, pw_rest_fresh, (pw_not_buffered_rest st Hok Hb).
Qed.

Fixpoint wops_nonempty (ops : list wop) : Prop :=
  match ops with
  | [] => True
  | WWrite p _ _ :: ops' => 0 < lenN p /\ wops_nonempty ops'
  | WFlush _ :: ops' => wops_nonempty ops'
  end.

(* Writing side: whatever the child took, plus what is still buffered, is exactly the framing of the
   packets that Write() accepted, in order -- for every acceptance pattern of the child. *)
Theorem packetized_write_stream mtu : forall ops st st' out rs,
  pw_ok st -> wops_nonempty ops ->
  pwrites mtu st ops = (st', out, rs) ->
  pw_ok st' /\ out ++ pw_rest st' = pw_rest st ++ frames (taken ops rs).
Proof.
  induction ops as [|o ops IH]; intros st st' out rs Hok Hne; cbn [pwrites].
  - intros E. injection E as <- <- <-. cbn. rewrite app_nil_r. auto.
  - destruct o as [p a1 a2|acc]; cbn [wops_nonempty] in Hne.
    + destruct Hne as [Hp Hne].
      destruct (pwrite mtu st p a1 a2) as [[st1 o1] r] eqn:E1.
      destruct (pwrites mtu st1 ops) as [[st2 o2] rs2] eqn:E2.
      intros E. injection E as <- <- <-.
      destruct (pwrite_spec _ _ _ _ _ _ _ _ Hok Hp E1) as (Hok1 & Ho1).
      destruct (IH _ _ _ _ Hok1 Hne E2) as (Hok2 & Ho2).
      split; [exact Hok2|]. rewrite <- app_assoc, Ho2, app_assoc, Ho1, <- app_assoc. f_equal.
      cbn [taken]. destruct r as [n|]; [|reflexivity].
      destruct (n =? 0); [reflexivity|]. now rewrite frames_cons.
    + destruct (pw_flush st acc) as [st1 o1] eqn:E1.
      destruct (pwrites mtu st1 ops) as [[st2 o2] rs2] eqn:E2.
      intros E. injection E as <- <- <-.
      destruct (pw_flush_spec _ _ _ _ Hok E1) as [Hok1 Ho1].
      destruct (IH _ _ _ _ Hok1 Hne E2) as (Hok2 & Ho2).
      split; [exact Hok2|]. rewrite <- app_assoc, Ho2, app_assoc, Ho1. reflexivity.
Qed.

(* ------------------------------------------------------------------ reader *)

(* reader state st together with the unread stream stands for the packets ps still to be handed over *)
Definition rep (st : prdr) (stream : list byte) (ps : list (list byte)) : Prop :=
  pr_err st = false /\
  ((lenN (pr_hdr st) < SZW /\ pr_size st = 0 /\ pr_data st = [] /\ pr_hdr st ++ stream = frames ps)
   \/
   (exists p ps', ps = p :: ps' /\ pr_hdr st = le32 (lenN p) /\ pr_size st = lenN p
                  /\ lenN (pr_data st) < lenN p /\ pr_data st ++ stream = p ++ frames ps')).

Definition pkt_ok (mtu : N) (p : list byte) : Prop := 0 < lenN p /\ lenN p <= mtu.

Lemma rep_init ps : rep pr_init (frames ps) ps.
Proof. split; [reflexivity|]. left. cbn. repeat split; unfold SZW; lia. Qed.

Lemma takeN_app_le' {A} n (a b : list A) : n <= lenN a -> takeN n (a ++ b) = takeN n a.
Proof. apply takeN_app_le. Qed.

Lemma dropN_app_le {A} n (a b : list A) : n <= lenN a -> dropN n (a ++ b) = dropN n a ++ b.
Proof.
  unfold dropN, lenN. intros H. rewrite skipn_app.
  replace (N.to_nat n - length a)%nat with 0%nat by lia. reflexivity.
Qed.

Lemma app_eq_prefix {A} (a b c d : list A) : a ++ b = c ++ d -> lenN a <= lenN c -> exists e, c = a ++ e /\ b = e ++ d.
Proof.
  revert c. induction a as [|x a IH]; intros c E H.
  - exists c. auto.
  - destruct c as [|y c]; [rewrite lenN_cons, lenN_nil in H; lia|].
    cbn [app] in E. injection E as -> E. rewrite !lenN_cons in H.
    destruct (IH c E ltac:(lia)) as (e & -> & ->). exists e. auto.
Qed.

Lemma app_eq_len {A} (a b c d : list A) : a ++ b = c ++ d -> lenN a = lenN c -> a = c /\ b = d.
Proof.
  intros E H. destruct (app_eq_prefix _ _ _ _ E ltac:(lia)) as (e & -> & ->). rewrite lenN_app in H.
  assert (e = []) by (apply lenN_0_nil; lia). subst e. now rewrite app_nil_r.
Qed.

(* one Read(): hands over nothing and stays in step, or hands over the next packet; it only ever removes
   bytes from the front of the stream, and at least one when both child reads find bytes available *)
Lemma pread_spec mtu st u stream a1 a2 ps st' stream' r :
  mtu < two32 -> Forall (pkt_ok mtu) ps -> mtu <= u ->
  rep st stream ps ->
  pread mtu st u stream a1 a2 = (st', stream', r) ->
  ((r = Some [] /\ rep st' stream' ps)
   \/ (exists p ps', ps = p :: ps' /\ r = Some p /\ rep st' stream' ps'))
  /\ lenN stream' <= lenN stream
  /\ (0 < a1 -> 0 < a2 -> stream <> [] -> lenN stream' < lenN stream).
Proof.
  intros Hmtu Hps Hu [Herr Hrep]. unfold pread. rewrite Herr.
  assert (Hpos : stream <> [] -> 0 < lenN stream) by (destruct stream; [congruence|rewrite lenN_cons; lia]).
  (* phase 1: the size word; if it was complete already, nothing is read *)
  assert (P1 : exists st1 stream1, pread_hdr mtu st stream a1 = (st1, stream1, false) /\ rep st1 stream1 ps
                 /\ lenN stream1 <= lenN stream
                 /\ (0 < a1 -> stream <> [] -> lenN stream1 < lenN stream \/ SZW <= lenN (pr_hdr st1))).
  { unfold pread_hdr. destruct (lenN (pr_hdr st) <? SZW) eqn:Hh.
    2:{ apply N.ltb_ge in Hh. exists st, stream. repeat split; (assumption || lia || auto). }
    apply N.ltb_lt in Hh.
    destruct Hrep as [(_ & Hsz & Hdat & Hfr)|(p & ps' & _ & Hhd & _)].
    2:{ rewrite Hhd, lenN_le32 in Hh. unfold SZW in Hh. lia. }
    cbv zeta. set (n := N.min a1 (SZW - lenN (pr_hdr st))).
    assert (Hdrop : lenN (dropN n stream) <= lenN stream
                    /\ (0 < a1 -> stream <> [] -> lenN (dropN n stream) < lenN stream \/ SZW <= lenN (pr_hdr st))).
    { rewrite lenN_dropN. split; [lia|]. intros H1 Hne. left. specialize (Hpos Hne). subst n. lia. }
    destruct (lenN (pr_hdr st ++ takeN n stream) =? SZW) eqn:Hfull.
    - apply N.eqb_eq in Hfull.
      (* the four bytes are the size word of the next packet *)
      destruct ps as [|p ps'].
      { exfalso. cbn in Hfr. apply app_eq_nil in Hfr as [E1 E2]. rewrite E1, E2 in Hfull.
        unfold takeN in Hfull. rewrite firstn_nil in Hfull. cbn in Hfull. unfold SZW in Hfull. lia. }
      rewrite frames_cons in Hfr. unfold frame in Hfr. rewrite <- app_assoc in Hfr.
      assert (Hhdr : pr_hdr st ++ takeN n stream = le32 (lenN p) /\ dropN n stream = p ++ frames ps').
      { rewrite <- (takeN_dropN n stream) in Hfr at 1. rewrite app_assoc in Hfr.
        apply app_eq_len in Hfr; [exact Hfr|]. now rewrite Hfull, lenN_le32. }
      destruct Hhdr as [Hh1 Hh2]. rewrite Hh1.
      inversion Hps as [|? ? [Hp0 Hpm] Hps']; subst.
      rewrite <- (app_nil_r (le32 (lenN p))), rd32_le32, u32_small by (unfold two32 in *; lia).
      assert (E1 : (mtu <? lenN p) = false) by (apply N.ltb_ge; lia).
      assert (E2 : (lenN p =? 0) = false) by (apply N.eqb_neq; lia).
      rewrite E1, E2. eexists _, _. split; [reflexivity|]. split.
      + split; [reflexivity|]. right. exists p, ps'. cbn [pr_hdr pr_size pr_data].
        rewrite app_nil_r. repeat split; try assumption; try reflexivity; change (lenN (@nil byte)) with 0; lia.
      + cbn [pr_hdr]. rewrite app_nil_r, lenN_le32. split; [apply Hdrop|]. right. reflexivity.
    - apply N.eqb_neq in Hfull. eexists _, _. split; [reflexivity|]. split.
      + split; [reflexivity|]. left. cbn [pr_hdr pr_size pr_data].
        assert (Hlen : lenN (pr_hdr st ++ takeN n stream) <= SZW).
        { rewrite lenN_app, lenN_takeN. subst n. lia. }
        repeat split; try assumption; [lia|].
        rewrite <- app_assoc, takeN_dropN. exact Hfr.
      + split; [apply Hdrop|]. intros H1 Hne. left. now destruct (proj2 Hdrop H1 Hne) as [H|H]; [|lia]. }
  destruct P1 as (st1 & stream1 & -> & [Herr1 Hrep1] & Hle1 & Hlt1).
  (* phase 2: the payload *)
  destruct ((lenN (pr_hdr st1) =? SZW) && (lenN (pr_data st1) <? pr_size st1)) eqn:Hph.
  2:{ intros E. injection E as <- <- <-. split; [left; split; [reflexivity|split; assumption]|]. split; [exact Hle1|].
      intros H1 _ Hne. destruct (Hlt1 H1 Hne) as [Hlt|Hge]; [exact Hlt|]. exfalso.
      (* a complete size word is followed by an incomplete payload *)
      destruct Hrep1 as [(Hh & _)|(p & ps' & _ & Hhd & Hsz & Hdl & _)]; [lia|].
      rewrite Hhd, lenN_le32, Hsz in Hph. apply andb_false_iff in Hph as [Hph|Hph]; [discriminate|].
      apply N.ltb_ge in Hph. lia. }
  apply andb_prop in Hph as [Hh4 Hlt]. apply N.eqb_eq in Hh4. apply N.ltb_lt in Hlt.
  destruct Hrep1 as [(Hh & _)|(p & ps' & -> & Hhd & Hsz & Hdl & Hfr)]; [lia|].
  cbv zeta. set (n := N.min a2 (pr_size st1 - lenN (pr_data st1))).
  assert (Hdrop : lenN (dropN n stream1) <= lenN stream
                  /\ (0 < a1 -> 0 < a2 -> stream <> [] -> lenN (dropN n stream1) < lenN stream)).
  { rewrite lenN_dropN. split; [lia|]. intros _ H2 Hne. specialize (Hpos Hne). subst n. lia. }
  rewrite Hsz in *.
  assert (Hpre : exists e, p = (pr_data st1 ++ takeN n stream1) ++ e /\ dropN n stream1 = e ++ frames ps').
  { rewrite <- (takeN_dropN n stream1) in Hfr at 1. rewrite app_assoc in Hfr.
    apply app_eq_prefix; [exact Hfr|]. rewrite lenN_app, lenN_takeN. subst n. lia. }
  destruct Hpre as (e & Ep & Es).
  destruct (lenN (pr_data st1 ++ takeN n stream1) =? lenN p) eqn:Hfin; intros E; injection E as <- <- <-;
    (split; [|exact Hdrop]).
  - apply N.eqb_eq in Hfin. right. exists p, ps'.
    assert (e = []).
    { apply lenN_0_nil. assert (H : lenN p = lenN ((pr_data st1 ++ takeN n stream1) ++ e)) by now rewrite <- Ep.
      rewrite lenN_app in H. lia. }
    subst e. rewrite app_nil_r in Ep. cbn [app] in Es.
    assert (Hpk : pkt_ok mtu p) by (inversion Hps; assumption). destruct Hpk as [Hp0 Hpm].
    split; [reflexivity|]. split; [rewrite <- Ep, takeN_all by lia; reflexivity|].
    split; [reflexivity|]. left. cbn [pr_hdr pr_size pr_data]. split; [unfold SZW; change (lenN (@nil byte)) with 0; lia|]. split; [reflexivity|]. split; [reflexivity|exact Es].
  - apply N.eqb_neq in Hfin. left. split; [reflexivity|]. split; [reflexivity|]. right.
    exists p, ps'. cbn [pr_hdr pr_size pr_data]. repeat split; try assumption.
    + assert (H : lenN p = lenN ((pr_data st1 ++ takeN n stream1) ++ e)) by now rewrite <- Ep.
      rewrite lenN_app in H. lia.
    + rewrite Es, app_assoc, <- Ep. reflexivity.
Qed.

(* the packets a reading session handed over *)
Fixpoint handed (rs : list (option (list byte))) : list (list byte) :=
  match rs with
  | [] => []
  | Some [] :: rs' => handed rs'
  | Some p :: rs' => p :: handed rs'
  | None :: rs' => handed rs'
  end.

(* Reading side: whatever way the stream arrives, no Read() fails, and the packets handed over are the
   framed packets, in order, unchanged, none skipped, none repeated; those not yet handed over are still
   represented by the reader state and the unread stream. *)
Theorem packetized_read_stream mtu : forall script ps st stream st' stream' rs,
  mtu < two32 -> Forall (pkt_ok mtu) ps -> Forall (fun x => mtu <= fst (fst x)) script ->
  rep st stream ps ->
  preads mtu st stream script = (st', stream', rs) ->
  Forall (fun r => r <> None) rs
  /\ exists ps', ps = handed rs ++ ps' /\ rep st' stream' ps'.
Proof.
  induction script as [|[[u a1] a2] script IH]; intros ps st stream st' stream' rs Hmtu Hps Hsc Hrep; cbn [preads].
  - intros E. injection E as <- <- <-. split; [constructor|]. exists ps. auto.
  - inversion Hsc as [|? ? Hu Hsc']; subst. cbn [fst] in Hu.
    destruct (pread mtu st u stream a1 a2) as [[st1 stream1] r] eqn:E1.
    destruct (preads mtu st1 stream1 script) as [[st2 stream2] rs2] eqn:E2.
    intros E. injection E as <- <- <-.
    destruct (pread_spec _ _ _ _ _ _ _ _ _ _ Hmtu Hps Hu Hrep E1) as [[[-> Hrep1]|(p & ps1 & -> & -> & Hrep1)] _].
    + destruct (IH _ _ _ _ _ _ Hmtu Hps Hsc' Hrep1 E2) as [Hne (ps' & Hd & Hr)].
      split; [constructor; [discriminate|exact Hne]|]. exists ps'. cbn [handed]. auto.
    + inversion Hps as [|? ? [Hp0 _] Hps1]; subst.
      destruct (IH _ _ _ _ _ _ Hmtu Hps1 Hsc' Hrep1 E2) as [Hne (ps' & Hd & Hr)].
      split; [constructor; [discriminate|exact Hne]|]. exists ps'. split; [|exact Hr].
      cbn [handed]. destruct p as [|b p]; [cbn in Hp0; lia|]. cbn [app]. now rewrite Hd.
Qed.

(* once the stream is read to its end no packet is half-read and none is outstanding *)
Lemma rep_stream_end st ps : rep st [] ps -> pr_hdr st = [] /\ ps = [].
Proof.
  intros [_ [(Hlt & _ & _ & Hfr)|(p & ps' & _ & _ & _ & Hdl & Hfr)]]; rewrite app_nil_r in Hfr.
  - destruct ps as [|p ps]; [auto|]. exfalso. apply (f_equal lenN) in Hfr.
    rewrite frames_cons, lenN_app, lenN_frame in Hfr. lia.
  - exfalso. apply (f_equal lenN) in Hfr. rewrite lenN_app in Hfr. lia.
Qed.

Lemma taken_ok mtu : forall ops st st' out rs,
  wops_nonempty ops -> pwrites mtu st ops = (st', out, rs) -> Forall (pkt_ok mtu) (taken ops rs).
Proof.
  induction ops as [|o ops IH]; intros st st' out rs; cbn [pwrites].
  - intros _ E. injection E as <- <- <-. constructor.
  - destruct o as [p a1 a2|acc]; cbn [wops_nonempty].
    + destruct (pwrite mtu st p a1 a2) as [[st1 o1] r] eqn:E1.
      destruct (pwrites mtu st1 ops) as [[st2 o2] rs2] eqn:E2.
      intros [Hp Hne] E. injection E as <- <- <-. specialize (IH _ _ _ _ Hne E2).
      cbn [taken]. destruct r as [n|]; [|exact IH]. destruct (n =? 0); [exact IH|].
      constructor; [|exact IH]. split; [exact Hp|].
      unfold pwrite in E1. destruct (mtu <? lenN p) eqn:Hm; [discriminate|]. now apply N.ltb_ge.
    + destruct (pw_flush st acc) as [st1 o1]. destruct (pwrites mtu st1 ops) as [[st2 o2] rs2] eqn:E2.
      intros Hne E. injection E as <- <- <-. exact (IH _ _ _ _ Hne E2).
Qed.

Lemma pwrites_done mtu wops wst out wrs :
  wops_nonempty wops -> pwrites mtu pw_init wops = (wst, out, wrs) -> pw_buffered wst = false ->
  out = frames (taken wops wrs) /\ Forall (pkt_ok mtu) (taken wops wrs).
Proof.
  intros Hne Hw Hnb. split; [|eapply taken_ok; eassumption].
  assert (Hok0 : pw_ok pw_init) by (split; cbn; [lia|reflexivity]).
  destruct (packetized_write_stream mtu wops pw_init wst out wrs Hok0 Hne Hw) as [Hok Hout].
  now rewrite (pw_not_buffered_rest wst Hok Hnb), app_nil_r in Hout.
Qed.

(* End to end: the packets Write() accepted, once the writer has nothing buffered and the reader has read
   the stream to its end with no packet half-read, are exactly the packets Read() handed over. *)
Theorem packetized_transport_perfect :
  forall mtu wops wst out wrs script rst rest rrs,
    mtu < two32 -> wops_nonempty wops ->
    Forall (fun x => mtu <= fst (fst x)) script ->
    pwrites mtu pw_init wops = (wst, out, wrs) ->
    pw_buffered wst = false ->
    preads mtu pr_init out script = (rst, rest, rrs) ->
    rest = [] -> pr_hdr rst = [] ->
    handed rrs = taken wops wrs /\ Forall (fun r => r <> None) rrs.
Proof.
  intros mtu wops wst out wrs script rst rest rrs Hmtu Hne Hsc Hw Hnb Hr -> Hh.
  destruct (pwrites_done mtu wops wst out wrs Hne Hw Hnb) as [-> Htk].
  destruct (packetized_read_stream mtu script _ _ _ _ _ _ Hmtu Htk Hsc (rep_init _) Hr) as [Hnone (ps' & Hd & Hrep)].
  apply rep_stream_end in Hrep as [_ ->]. rewrite app_nil_r in Hd. auto.
Qed.

(* non-vacuity: a busy writer (second Write returns 0 and is retried), partial flushes, a reader fed a few bytes at a time *)
Example packetized_nontrivial :
  let wops := [WWrite [x01; x02; x03] 2 0; WWrite [x09] 1 9; WWrite [x09] 9 9; WFlush 99] in
  let script := [(8, 3, 9); (8, 0, 0); (8, 1, 1); (8, 9, 2); (8, 9, 9); (8, 9, 9)] in
  let '(wst, out, wrs) := pwrites 8 pw_init wops in
  let '(rst, rest, rrs) := preads 8 pr_init out script in
  wops_nonempty wops /\ pw_buffered wst = false /\ rest = [] /\ pr_hdr rst = []
  /\ wrs = [WTook 3; WTook 0; WTook 1] /\ handed rrs = [[x01; x02; x03]; [x09]].
Proof. vm_compute. repeat split; reflexivity. Qed.

(* ------------------------------------------------------------------ progress: the end of the stream is reached *)

(* as many Read() calls as there are bytes, each finding bytes available, read the stream to its end *)
Lemma preads_exhaust mtu : forall script ps st stream st' stream' rs,
  mtu < two32 -> Forall (pkt_ok mtu) ps ->
  Forall (fun x => mtu <= fst (fst x) /\ 0 < snd (fst x) /\ 0 < snd x) script ->
  rep st stream ps -> (length stream <= length script)%nat ->
  preads mtu st stream script = (st', stream', rs) ->
  stream' = [].
Proof.
  induction script as [|[[u a1] a2] script IH]; intros ps st stream st' stream' rs Hmtu Hps Hsc Hrep Hlen; cbn [preads].
  - intros E. injection E as <- <- <-. destruct stream; [reflexivity|cbn in Hlen; lia].
  - inversion Hsc as [|? ? (Hu & H1 & H2) Hsc']; subst. cbn [fst snd] in *.
    destruct (pread mtu st u stream a1 a2) as [[st1 stream1] r] eqn:E1.
    destruct (preads mtu st1 stream1 script) as [[st2 stream2] rs2] eqn:E2.
    intros E. injection E as <- <- <-.
    destruct (pread_spec _ _ _ _ _ _ _ _ _ _ Hmtu Hps Hu Hrep E1) as (Hcase & Hle & Hlt).
    assert (Hshort : (length stream1 <= length script)%nat).
    { unfold lenN in Hle, Hlt. destruct stream as [|b stream]; cbn [length] in *; [lia|].
      specialize (Hlt H1 H2 ltac:(discriminate)). lia. }
    destruct Hcase as [[_ Hrep1]|(p & ps1 & -> & _ & Hrep1)].
    + eapply IH; [exact Hmtu|exact Hps|exact Hsc'|exact Hrep1|exact Hshort|exact E2].
    + inversion Hps as [|? ? _ Hps1]; subst.
      eapply IH; [exact Hmtu|exact Hps1|exact Hsc'|exact Hrep1|exact Hshort|exact E2].
Qed.

(* End to end with a fair reader: whatever the cuts, after as many Read() calls as the stream has bytes, each finding
   bytes available, every packet Write() accepted has been handed over, once, in order, unchanged. *)
Theorem packetized_transport_delivers_all :
  forall mtu wops wst out wrs script rst rest rrs,
    mtu < two32 -> wops_nonempty wops ->
    Forall (fun x => mtu <= fst (fst x) /\ 0 < snd (fst x) /\ 0 < snd x) script ->
    (length out <= length script)%nat ->
    pwrites mtu pw_init wops = (wst, out, wrs) ->
    pw_buffered wst = false ->
    preads mtu pr_init out script = (rst, rest, rrs) ->
    handed rrs = taken wops wrs /\ rest = [] /\ Forall (fun r => r <> None) rrs.
Proof.
  intros mtu wops wst out wrs script rst rest rrs Hmtu Hne Hsc Hlen Hw Hnb Hr.
  assert (Hsc' : Forall (fun x => mtu <= fst (fst x)) script) by (eapply Forall_impl; [|exact Hsc]; intros x (H & _); exact H).
  destruct (pwrites_done mtu wops wst out wrs Hne Hw Hnb) as [-> Htk].
  pose proof (preads_exhaust mtu script _ _ _ _ _ _ Hmtu Htk Hsc (rep_init _) Hlen Hr) as Hrest. subst rest.
  destruct (packetized_read_stream mtu script _ _ _ _ _ _ Hmtu Htk Hsc' (rep_init _) Hr) as [Hnone (ps' & Hd & Hrep)].
  destruct (rep_stream_end _ _ Hrep) as [_ ->]. rewrite app_nil_r in Hd. auto.
Qed.
