(* C03 -- the binary gateway with MUSCLE_MESSAGE_ENCODING_DEFAULT: the codec premise of
   FrameProofs is discharged by computation, giving closed laws and end-to-end theorems. *)
From Coq Require Import List NArith ZArith Bool Lia ZifyBool.
From Muscle Require Import Gen.Consts Gw.GwBase Gw.GwLemmas Gw.FrameModel Gw.TransportProofs Gw.FrameProofs.
Import ListNotations.
Local Open Scope N_scope.

Lemma enc_default_small : c_MUSCLE_MESSAGE_ENCODING_DEFAULT < two32.
Proof. reflexivity. Qed.

Lemma d_body_size_hdr n enc :
  n < two32 ->
  c_MUSCLE_MESSAGE_ENCODING_DEFAULT <= enc <= c_MUSCLE_MESSAGE_ENCODING_END_MARKER - 1 ->
  d_body_size (le32 n ++ le32 enc) = Some n.
Proof.
  intros Hn He.
  assert (He2 : enc < two32) by (assert (c_MUSCLE_MESSAGE_ENCODING_END_MARKER < two32) by reflexivity; lia).
  destruct (frame_head n enc [] Hn He2) as (E1 & E2 & _). rewrite app_nil_r in E1, E2.
  unfold d_body_size. rewrite E1, E2.
  assert (E : (c_MUSCLE_MESSAGE_ENCODING_DEFAULT <=? enc) && (enc <=? c_MUSCLE_MESSAGE_ENCODING_END_MARKER - 1) = true) by lia.
  now rewrite E.
Qed.

(* a body under a DEFAULT header comes back as it is *)
Lemma d_unflat_frame (c c' : unit) m : f_hs + blen m < two32 -> d_unflat c' (snd (d_flat c m)) = (c', Some m).
Proof.
  intros Hs. unfold d_flat, d_unflat. cbn [snd].
  destruct (frame_head (blen m) c_MUSCLE_MESSAGE_ENCODING_DEFAULT m) as (E1 & E2 & E3 & E4);
    [rewrite f_hs_is_8 in Hs; lia|exact enc_default_small|].
  unfold u32. rewrite E1, E2, E3, E4, N.mod_small, !N.eqb_refl by exact Hs. reflexivity.
Qed.

Section Default.
  Variable max_in : N.     (* the receiver's SetMaxIncomingMessageSize; MUSCLE_NO_LIMIT by default *)

  (* the domain: flattened Messages that fit the receiver's limit and the 32-bit size word *)
  Definition d_wfb (m : bytes) : Prop := blen m <= max_in /\ f_hs + blen m < two32.

  Lemma d_flat_len (c : unit) m : f_hs <= blen (snd (d_flat c m)).
  Proof. unfold d_flat. cbn [snd]. rewrite !blen_app, !blen_le32, f_hs_is_8. lia. Qed.

  Lemma d_codec_sync (cs cr : unit) m : True -> d_wfb m ->
    exists hdr payload cr',
      snd (d_flat cs m) = hdr ++ payload /\ blen hdr = f_hs /\
      d_body_size hdr = Some (blen payload) /\
      blen payload <= max_in /\ f_hs + blen payload < two32 /\
      d_unflat cr (snd (d_flat cs m)) = (cr', Some m) /\ True.
  Proof.
    intros _ [Hm Hs].
    exists (le32 (blen m) ++ le32 c_MUSCLE_MESSAGE_ENCODING_DEFAULT), m, cr.
    split; [unfold d_flat; cbn [snd]; now rewrite <- app_assoc|]. split; [reflexivity|].
    split; [apply d_body_size_hdr; [rewrite f_hs_is_8 in Hs; lia|vm_compute; split; discriminate]|].
    auto using d_unflat_frame.
  Qed.

  Notation d_run := (sys_run fs_queue d_do_output (d_do_input max_in)).
  Definition d_sys0 := f_sys0 bytes unit unit tt tt.
  Definition d_rem := fs_rem bytes unit d_flat.
  Definition d_sender (wfb : bytes -> Prop) := f_sender bytes unit d_flat tt d_flat_len wfb.
  Definition d_decoder :=
    f_decoder bytes unit unit d_flat d_unflat d_body_size max_in tt tt d_flat_len (fun _ _ => True) d_wfb I d_codec_sync.

  (* For every list of events -- queue a Message, DoOutput(maxBytes) under any write script,
     DoInput(maxBytes) under any read script, in any order -- the Messages handed to the receiver
     so far are a prefix (as a list of Messages) of the Messages queued so far. *)
  Theorem d_prefix_safety (evs : list (event bytes)) :
    Forall (ev_wf d_wfb) evs -> exists tl, ev_msgs evs = s_dlv (d_run d_sys0 evs) ++ tl.
  Proof. exact (link_prefix_safety (d_sender d_wfb) d_decoder evs). Qed.

  Theorem d_completeness (evs : list (event bytes)) :
    Forall (ev_wf d_wfb) evs ->
    d_rem (s_snd (d_run d_sys0 evs)) = [] -> s_pipe (d_run d_sys0 evs) = [] ->
    s_dlv (d_run d_sys0 evs) = ev_msgs evs.
  Proof. exact (link_completeness (d_sender d_wfb) d_decoder evs). Qed.

  Theorem d_fair_completion (evs : list (event bytes)) (rs : list (list (event bytes))) :
    Forall (ev_wf d_wfb) evs -> Forall round rs ->
    (measure d_rem (fun _ => 0%nat) (d_run d_sys0 evs) <= length rs)%nat ->
    let st := d_run d_sys0 (evs ++ concat rs) in
    quiet d_rem st /\ s_dlv st = ev_msgs evs.
  Proof. exact (link_fair_completion (d_sender d_wfb) d_decoder evs rs). Qed.

  Theorem d_receiver_idle (evs : list (event bytes)) :
    Forall (ev_wf d_wfb) evs ->
    d_rem (s_snd (d_run d_sys0 evs)) = [] -> s_pipe (d_run d_sys0 evs) = [] ->
    exists cr', fr_norm unit (s_rcv (d_run d_sys0 evs)) = idle unit cr'.
  Proof. exact (link_receiver_final (d_sender d_wfb) d_decoder evs). Qed.

  (* HasBytesToOutput() = false implies that nothing is left to write *)
  Lemma d_has_bytes_rem (st : fsend bytes unit) ms :
    fs_SI bytes unit d_flat tt st ms -> fs_has_bytes st = false -> d_rem st = [].
  Proof. intros _. apply fs_has_bytes_rem. Qed.
End Default.

(* the split lemma in terms of the outputs alone: outputs of feeding a ++ b = outputs of feeding a,
   then b from the state reached *)
Lemma d_feed_split max_in st a b :
  snd (d_feed max_in st (a ++ b)) =
  snd (d_feed max_in st a) ++ snd (d_feed max_in (fst (d_feed max_in st a)) b).
Proof.
  unfold d_feed. rewrite f_feed_app.
  destruct (f_feed bytes unit d_unflat d_body_size max_in st a) as [st1 o1]. cbn [fst snd].
  destruct (f_feed bytes unit d_unflat d_body_size max_in st1 b) as [st2 o2]. reflexivity.
Qed.

(* non-vacuity: a 12-byte Message (what-code only) is in the domain for the default limit *)
Example d_wfb_example : d_wfb c_MUSCLE_NO_LIMIT (le32 c_CURRENT_PROTOCOL_VERSION ++ le32 7 ++ le32 0).
Proof. vm_compute. split; [discriminate|reflexivity]. Qed.
