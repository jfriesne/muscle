(* C12 -- end to end: the tunnel gateways over dataio/PacketizedProxyDataIO (what test/testpackettunnel.cpp
   runs for tcp=...): whatever way the byte stream is cut up on the writing and on the reading side, every
   completely written Message that fits the limits is delivered exactly once, in order.
   The composition itself stands in Properties_C12 (over_packetized_perfect / _fair applied to tunnel_complete or
   mini_complete); this file gives the transfer lemmas and the worked example. *)
From Coq Require Import List NArith Lia.
From Coq Require Import Strings.Byte.
From Muscle Require Import Common.LE Gen.Consts Gw.Tunnel Gw.Packetized Gw.PacketizedProofs.
Import ListNotations.
Local Open Scope N_scope.

(* [wops]: the Write()/WriteBufferedOutput() calls the sending side made on the packetizer (a refused
   packet is offered again, so the packets TAKEN are the packets the gateway wrote: [taken wops wrs = pkts]);
   [script]: the Read() calls of the receiving side.  The content is [handed rrs = pkts]; it is stated as a transfer
   of an arbitrary property P of the packets (what a receiver makes of them) so that it applies by [exact]. *)
Lemma over_packetized_perfect (P : list packet -> Prop) {pkts mtu wops wst out wrs script rst rest rrs} :
  P pkts ->
  mtu < two32 -> wops_nonempty wops -> Forall (fun x => mtu <= fst (fst x)) script ->
  pwrites mtu pw_init wops = (wst, out, wrs) -> taken wops wrs = pkts -> pw_buffered wst = false ->
  preads mtu pr_init out script = (rst, rest, rrs) -> rest = [] -> pr_hdr rst = [] ->
  P (handed rrs).
Proof.
  intros HP Hmtu Hne Hsc Hw Htk Hnb Hr Hrest Hh.
  now rewrite (proj1 (packetized_transport_perfect mtu wops wst out wrs script rst rest rrs Hmtu Hne Hsc Hw Hnb Hr Hrest Hh)), Htk.
Qed.

(* the same with a fair reader instead of "the stream was read to its end": as many Read() calls as the stream has
   bytes, each finding bytes available on the child *)
Lemma over_packetized_fair (P : list packet -> Prop) {pkts mtu wops wst out wrs script rst rest rrs} :
  P pkts ->
  mtu < two32 -> wops_nonempty wops ->
  Forall (fun x => mtu <= fst (fst x) /\ 0 < snd (fst x) /\ 0 < snd x) script ->
  (length out <= length script)%nat ->
  pwrites mtu pw_init wops = (wst, out, wrs) -> taken wops wrs = pkts -> pw_buffered wst = false ->
  preads mtu pr_init out script = (rst, rest, rrs) ->
  P (handed rrs).
Proof.
  intros HP Hmtu Hne Hsc Hl Hw Htk Hnb Hr.
  now rewrite (proj1 (packetized_transport_delivers_all mtu wops wst out wrs script rst rest rrs Hmtu Hne Hsc Hl Hw Hnb Hr)), Htk.
Qed.

(* non-vacuity: the three packets of a two-Message run, written through a packetizer whose child takes a few
   bytes at a time, read back a few bytes at a time *)
Definition e2e_cfg : scfg := mkSCfg c_DEFAULT_TUNNEL_IOGATEWAY_MAGIC 0 (clamp_mtu 30).
Definition e2e_rc : rcfg := mkRCfg c_DEFAULT_TUNNEL_IOGATEWAY_MAGIC 0 (clamp_mtu 30) 4294967295 false.
Definition e2e_ops : list sop := [SAdd (repeat x41 9); SAdd [x07]; SOut 4294967295 100].
Definition e2e_pkts : list packet := snd (srun e2e_cfg (s_init 0) e2e_ops).
Definition e2e_wops : list wop :=
  flat_map (fun p => [WWrite p 5 0; WFlush 7; WFlush 100]) e2e_pkts.
Definition e2e_script : list (N * N * N) := repeat (30, 3, 11) 40.

Example e2e_nontrivial :
  let '(wst, out, wrs) := pwrites 30 pw_init e2e_wops in
  let '(rst, rest, rrs) := preads 30 pr_init out e2e_script in
  length e2e_pkts = 3%nat /\ taken e2e_wops wrs = e2e_pkts /\ pw_buffered wst = false /\ rest = [] /\ pr_hdr rst = []
  /\ snd (recv_all e2e_rc [] (map (pair 0) (handed rrs))) = [(0, repeat x41 9); (0, [x07])].
Proof. vm_compute. repeat split; reflexivity. Qed.
