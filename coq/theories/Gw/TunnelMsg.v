(* C12 at the level of Messages: the tunnel used without a slave gateway (iogateway/ProxyIOGateway.cpp:
   GenerateOutgoingByteBuffers flattens the Message into the buffer handed to the tunnel,
   HandleIncomingByteBuffer unflattens a reassembled buffer and hands the Message over iff that succeeds).
   Composition of the C12 theorems about buffers with C01's model of Message::Flatten/Unflatten (Msg/):
   every delivered Message is the round-trip image [rt M] of a sent Message M -- same what-code, fields,
   types, item bytes, and it re-serialises to exactly M's bytes. *)
From Coq Require Import List NArith Lia.
From Coq Require Import Strings.Byte.
From Muscle Require Import Common.LE Gen.Consts Gw.Tunnel Gw.TunnelProofs Gw.TunnelSender
                           Gw.TunnelComplete Gw.TunnelTheorems.
From Muscle Require Msg.MsgDefs Msg.MsgModel Msg.MsgBytesProofs Msg.MsgSizeProofs Msg.MsgRoundTrip Msg.MsgReprProofs Msg.MsgExamples.
Import ListNotations.
Local Open Scope N_scope.

Definition Message := MsgDefs.msg.

(* no slave gateway: the buffer is the flattened Message ... *)
Definition to_buffer (M : Message) : msg := MsgModel.flatten M.
(* ... and a reassembled buffer becomes a Message iff Unflatten accepts it *)
Definition of_buffer (b : msg) : option Message :=
  match MsgModel.unflatten b with MsgDefs.Ok M => Some M | _ => None end.

Inductive Mop :=
| MAddMsg (M : Message)               (* AddOutgoingMessage *)
| MOutput (maxBytes budget : N).      (* DoOutput *)

Definition lower (o : Mop) : sop :=
  match o with MAddMsg M => SAdd (to_buffer M) | MOutput mb bud => SOut mb bud end.

Fixpoint sent_msgs (ops : list Mop) : list Message :=
  match ops with
  | [] => []
  | MAddMsg M :: ops' => M :: sent_msgs ops'
  | _ :: ops' => sent_msgs ops'
  end.

Definition deliver_msgs (out : list (addr * msg)) : list (addr * Message) :=
  flat_map (fun d => match of_buffer (snd d) with Some M => [(fst d, M)] | None => [] end) out.

Lemma added_lower ops : added (map lower ops) = map to_buffer (sent_msgs ops).
Proof. induction ops as [|[M|mb bud] ops IH]; cbn [map lower added sent_msgs]; [reflexivity| |exact IH]. now rewrite IH. Qed.

Lemma no_setid_lower ops : no_setid (map lower ops).
Proof. induction ops as [|[M|mb bud] ops IH]; cbn [map lower no_setid]; auto. Qed.

Lemma lenN_to_buffer M : MsgModel.wf M -> lenN (to_buffer M) < two32.
Proof.
  intros [Hwf Hsz]. unfold to_buffer, lenN. rewrite <- MsgBytesProofs.len_length.
  rewrite (MsgSizeProofs.flatten_length M Hwf). exact Hsz.
Qed.

Lemma of_to_buffer M : MsgModel.wf M -> of_buffer (to_buffer M) = Some (MsgModel.rt M).
Proof. intros H. unfold of_buffer, to_buffer. now rewrite (MsgRoundTrip.unflatten_flatten M H). Qed.

Lemma to_buffers_small Ms : Forall MsgModel.wf Ms -> Forall (fun m => lenN m < two32) (map to_buffer Ms).
Proof. intros H. apply Forall_map. eapply Forall_impl; [|exact H]. exact lenN_to_buffer. Qed.

Lemma delivered_rt Ms a D out :
  Forall MsgModel.wf Ms -> (forall b, In (a, b) out -> In b (map to_buffer Ms)) ->
  In (a, D) (deliver_msgs out) ->
  exists M, In M Ms /\ D = MsgModel.rt M /\ MsgModel.flatten D = MsgModel.flatten M.
Proof.
  intros Hwf Hout HD. unfold deliver_msgs in HD. apply in_flat_map in HD as ([a' b] & Hin & HD). cbn [fst snd] in HD.
  destruct (of_buffer b) as [M'|] eqn:Eb; [|destruct HD]. destruct HD as [E|[]]. injection E as -> ->.
  apply Hout, in_map_iff in Hin as (M & <- & HM).
  rewrite Forall_forall in Hwf. specialize (Hwf M HM).
  rewrite (of_to_buffer M Hwf) in Eb. injection Eb as <-.
  exists M. split; [exact HM|]. split; [reflexivity|]. apply MsgReprProofs.reflatten. exact (proj1 Hwf).
Qed.

Lemma option_map_Some {A B} (f : A -> B) o y : option_map f o = Some y -> exists x, o = Some x /\ y = f x.
Proof. destruct o as [x|]; [|discriminate]. intros E. injection E as <-. now exists x. Qed.

(* a sender described at the level of Messages *)
Record msg_run := mkMsgRun { mr_scfg : scfg; mr_id0 : N; mr_mops : list Mop }.
Definition lower_run (s : msg_run) : sender_run := mkRun (mr_scfg s) (mr_id0 s) (map lower (mr_mops s)).

Definition msg_run_ok (s : msg_run) : Prop :=
  scfg_ok (mr_scfg s) /\ mr_id0 s < two32
  /\ N.of_nat (length (sent_msgs (mr_mops s))) <= two32
  /\ Forall MsgModel.wf (sent_msgs (mr_mops s)).

Lemma lower_run_ok s : msg_run_ok s -> sr_ok (lower_run s).
Proof.
  intros (Hc & Hid & Hlen & Hwf). unfold sr_ok, lower_run, sr_msgs. cbn [sr_cfg sr_id0 sr_ops].
  rewrite added_lower, map_length.
  split; [exact Hc|]. split; [exact Hid|]. split; [apply no_setid_lower|]. split; [exact Hlen|].
  now apply to_buffers_small.
Qed.

(* THE PROPERTY, first clause, for Messages: over loss, duplication, reordering, foreign datagrams and arbitrary
   bytes from other addresses, every Message handed to the receiver under a sender's address is the round-trip
   image of a Message that sender was given, and serialises to exactly the same bytes. *)
Theorem tunnel_message_sound :
  forall (rc : rcfg) (who : addr -> option msg_run) (net : list (addr * packet)) t out,
    rc_misc rc = false -> 4 <= rc_mtu rc ->
    (forall a s, who a = Some s -> msg_run_ok s) ->
    (forall a s p, who a = Some s -> In (a, p) net -> In p (sr_packets (lower_run s)) \/ foreign (rc_magic rc) p) ->
    recv_all rc [] net = (t, out) ->
    forall a s D, who a = Some s -> In (a, D) (deliver_msgs out) ->
      exists M, In M (sent_msgs (mr_mops s)) /\ D = MsgModel.rt M /\ MsgModel.flatten D = MsgModel.flatten M.
Proof.
  intros rc who net t out Hmisc Hmtu Hok Hnet Hrun a s D Ha.
  apply delivered_rt; [apply (Hok a s Ha)|]. intros b Hb.
  rewrite <- added_lower. change (In b (sr_msgs (lower_run s))).
  apply (tunnel_sound rc (fun x => option_map lower_run (who x)) net t out Hmisc Hmtu) with (a := a);
    [| |exact Hrun|now rewrite Ha|exact Hb].
  - intros x sx Hx. apply option_map_Some in Hx as (s0 & E0 & ->). apply lower_run_ok. eapply Hok; eassumption.
  - intros x sx p Hx Hp. apply option_map_Some in Hx as (s0 & E0 & ->). eapply Hnet; eassumption.
Qed.

Definition fitsM (rc : rcfg) (M : Message) : bool := fits rc (to_buffer M).

Lemma deliver_msgs_map a Ms :
  Forall MsgModel.wf Ms ->
  deliver_msgs (map (pair a) (map to_buffer Ms)) = map (pair a) (map MsgModel.rt Ms).
Proof.
  induction Ms as [|M Ms IH]; intros H; [reflexivity|]. inversion H; subst.
  unfold deliver_msgs in *. cbn [map flat_map fst snd]. rewrite of_to_buffer by assumption. cbn [app]. now rewrite IH.
Qed.

Lemma filter_map_comm {A B} (f : A -> B) (p : B -> bool) l : filter p (map f l) = map f (filter (fun x => p (f x)) l).
Proof. induction l as [|x l IH]; [reflexivity|]. cbn [map filter]. destruct (p (f x)); cbn [map]; now rewrite IH. Qed.

(* THE PROPERTY, second clause, for Messages: every packet once and in order => exactly the completely written
   Messages whose flattened size fits the receiver's limit, as their round-trip images, once each, in order. *)
Theorem tunnel_message_complete :
  forall rc c a id0 (mops : list Mop) st pkts t0,
    scfg_ok c -> compat c rc -> id0 < two32 ->
    N.of_nat (length (sent_msgs mops)) <= two32 ->
    Forall MsgModel.wf (sent_msgs mops) ->
    srun c (s_init id0) (map lower mops) = (st, pkts) ->
    s_pkt st = [] -> s_q st = [] ->
    tbl_wf t0 -> tbl_find a t0 = None ->
    deliver_msgs (snd (recv_all rc t0 (map (pair a) pkts)))
    = map (pair a) (map MsgModel.rt (filter (fitsM rc) (sent_msgs mops))).
Proof.
  intros rc c a id0 mops st pkts t0 Hc Hcompat Hid Hlen Hwf Hrun Hpk Hq Hwft Hnone.
  pose proof (to_buffers_small _ Hwf) as Hsz. rewrite <- added_lower in Hsz.
  rewrite <- (map_length to_buffer), <- added_lower in Hlen.
  destruct (tunnel_complete rc c a id0 (map lower mops) st pkts t0 Hc Hcompat Hid (no_setid_lower _) Hlen Hsz Hrun Hpk Hwft Hnone)
    as (done & Hd & Hout).
  rewrite Hq, app_nil_r in Hd. subst done. rewrite Hout, added_lower, filter_map_comm.
  apply deliver_msgs_map. exact (incl_Forall (incl_filter _ _) Hwf).
Qed.

(* ------------------------------------------------------------------ non-vacuity *)

(* C01's example Message (nested sub-Messages, an array, a pointer field that is never written) and its
   sub-Message, through MTU 40: the premises hold, and the round trip really changes the Message (rt M <> M) *)
Example ex_sub_wf : MsgModel.wf MsgExamples.ex_sub.
Proof.
  split; [|vm_compute; reflexivity].
  cbn [MsgExamples.ex_sub MsgModel.wf_msg MsgModel.wf_fields MsgModel.wf_repr MsgModel.wf_items MsgDefs.fnames].
  repeat split; try (vm_compute; reflexivity); try exact I;
    try (repeat constructor; cbn [In]; intuition discriminate).
Qed.

Definition exm_cfg : scfg := mkSCfg c_DEFAULT_TUNNEL_IOGATEWAY_MAGIC 0 (clamp_mtu 40).
Definition exm_rc : rcfg := mkRCfg c_DEFAULT_TUNNEL_IOGATEWAY_MAGIC 0 (clamp_mtu 40) 4294967295 false.
Definition exm_ops : list Mop := [MAddMsg MsgExamples.ex_msg; MAddMsg MsgExamples.ex_sub; MOutput 4294967295 1000].
Definition exm_run : msg_run := mkMsgRun exm_cfg 4294967294 exm_ops.

Example exm_ok : msg_run_ok exm_run /\ compat exm_cfg exm_rc.
Proof.
  split.
  - unfold msg_run_ok. cbn [mr_scfg mr_id0 mr_mops exm_run exm_ops sent_msgs].
    split; [unfold scfg_ok; split; [vm_compute; reflexivity|split; vm_compute; reflexivity]|].
    split; [vm_compute; reflexivity|]. split; [vm_compute; discriminate|].
    constructor; [exact MsgExamples.ex_wf|constructor; [exact ex_sub_wf|constructor]].
  - unfold compat. split; [vm_compute; reflexivity|split; [vm_compute; reflexivity|vm_compute; discriminate]].
Qed.

Example exm_nontrivial :
  let pkts := sr_packets (lower_run exm_run) in
  (10 < length pkts)%nat
  /\ deliver_msgs (snd (recv_all exm_rc [] (map (pair 5) pkts)))
     = [(5, MsgModel.rt MsgExamples.ex_msg); (5, MsgModel.rt MsgExamples.ex_sub)]
  /\ MsgModel.rt MsgExamples.ex_msg <> MsgExamples.ex_msg.
Proof. cbv zeta. split; [vm_compute; lia|]. split; [vm_compute; reflexivity|exact MsgExamples.ex_rt_differs]. Qed.
