(* C03 -- the generic end-to-end argument: a sender machine and a receiver machine joined by
   a byte pipe, driven by an arbitrary event list (queue a Message / DoOutput(max) under any
   write script / DoInput(max) under any read script, interleaved in any order).

   Section Generic, the transport theorem.  A gateway pair supplies
     wire     what a sender puts on the wire for the list of all Messages queued so far,
     rem      the bytes a sender state still has to write,
     SI       an invariant tying a sender state to the list of Messages queued so far,
     RRel     "receiver state r has consumed bytes c in total and delivered outputs o in total",
   and the step lemmas listed as hypotheses; derived, for EVERY event list:
     prefix_safety    what has been delivered is a prefix of what has been queued,
     completeness     once the sender has nothing left and nothing is in flight, delivered = queued,
     fair_completion  every schedule made of enough rounds that each contain a productive
                      DoOutput and a productive DoInput call (in any order, between any other
                      calls, with any scripts and maxBytes) reaches that point.

   Section ByteMachine: [bfeed], the fold of a receiver's byte step, with the split lemma.
   Section Laws, the framing theorem on top of both, for receivers that decode (all but the raw
   gateway's, which holds bytes back): [sender_laws] and [decoder_laws] give link_prefix_safety,
   link_completeness, link_receiver_final, link_fair_completion. *)
From Coq Require Import List NArith Bool Lia Arith.
From Muscle Require Import Gw.GwBase Gw.GwLemmas.
Import ListNotations.

Section Generic.
  Context {M O S R I : Type}.
  Variable queue : S -> M -> S.
  Variable do_out : S -> N -> list N -> S * bytes.
  Variable do_in : R -> N -> list N -> bytes -> R * list O * bytes.
  Variable s0 : S.
  Variable r0 : R.
  Variable wfm : M -> Prop.                       (* the property's domain of Messages *)
  Variable wire : list M -> bytes.
  Variable flat_m : list M -> list I.             (* what the property compares on the sending side *)
  Variable flat_o : list O -> list I.             (* ... and on the receiving side *)
  Variable fin : R -> list I.                     (* items a receiver holds back (fixed-size chunk assembly); [] elsewhere *)
  Variable rem : S -> bytes.
  Variable SI : S -> list M -> Prop.
  Variable RRel : R -> bytes -> list O -> Prop.

  Hypothesis wire_nil : wire [] = [].
  Hypothesis S_init : SI s0 [] /\ rem s0 = [].
  Hypothesis S_queue : forall s ms m,
      Forall wfm ms -> wfm m -> SI s ms ->
      SI (queue s m) (ms ++ [m]) /\
      exists d, rem (queue s m) = rem s ++ d /\ wire (ms ++ [m]) = wire ms ++ d.
  Hypothesis S_out : forall s ms maxb scr s' x,
      Forall wfm ms -> SI s ms -> do_out s maxb scr = (s', x) ->
      SI s' ms /\ rem s = x ++ rem s'.
  Hypothesis R_init : RRel r0 [] [].
  Hypothesis R_in : forall ms r c o maxb scr pipe rest r' o' pipe',
      Forall wfm ms -> wire ms = c ++ pipe ++ rest -> RRel r c o ->
      do_in r maxb scr pipe = (r', o', pipe') ->
      exists x, pipe = x ++ pipe' /\ RRel r' (c ++ x) (o ++ o').
  Hypothesis decode_prefix : forall ms r c o rest,
      Forall wfm ms -> wire ms = c ++ rest -> RRel r c o ->
      exists tl, flat_m ms = flat_o o ++ tl.
  Hypothesis decode_complete : forall ms r o,
      Forall wfm ms -> RRel r (wire ms) o -> flat_o o ++ fin r = flat_m ms.

  Notation sys := (@sys M O S R).
  Notation step := (sys_step queue do_out do_in).
  Notation run := (sys_run queue do_out do_in).

  Definition sys0 : sys := mkSys s0 [] r0 [] [].

  (* the system invariant: consumed ++ in flight ++ still to be written = the wire image of
     everything queued so far *)
  Definition sys_inv (st : sys) : Prop :=
    Forall wfm (s_sent st) /\ SI (s_snd st) (s_sent st) /\
    exists c, wire (s_sent st) = c ++ s_pipe st ++ rem (s_snd st) /\ RRel (s_rcv st) c (s_dlv st).

  Definition ev_wf (e : event M) : Prop := match e with EQueue m => wfm m | _ => True end.

  Lemma sys_inv_init : sys_inv sys0.
  Proof.
    destruct S_init as [H1 H2]. split; [constructor|]. split; [exact H1|].
    exists []. cbn. rewrite H2, wire_nil. auto.
  Qed.

  Lemma sys_inv_step st e : sys_inv st -> ev_wf e -> sys_inv (step st e).
  Proof.
    intros (Hwf & HS & c & Hw & HR) He.
    destruct e as [m | maxb scr | maxb scr]; cbn [sys_step].
    - destruct (S_queue _ _ m Hwf He HS) as (HS' & d & Hd1 & Hd2).
      split; cbn; [apply Forall_app; split; auto|]. split; auto.
      exists c. split; auto. rewrite Hd2, Hd1, Hw. now rewrite <- !app_assoc.
    - destruct (do_out (s_snd st) maxb scr) as [s' x] eqn:E.
      destruct (S_out _ _ _ _ _ _ Hwf HS E) as (HS' & Hx).
      split; cbn; auto. split; auto. exists c. split; auto.
      rewrite Hw, Hx. now rewrite <- !app_assoc.
    - destruct (do_in (s_rcv st) maxb scr (s_pipe st)) as [[r' o'] p'] eqn:E.
      destruct (R_in _ _ _ _ _ _ _ _ _ _ _ Hwf Hw HR E) as (x & Hp & HR').
      split; cbn; auto. split; auto. exists (c ++ x). split; auto.
      rewrite Hw, Hp. now rewrite <- !app_assoc.
  Qed.

  Lemma sys_inv_run evs : forall st, sys_inv st -> Forall ev_wf evs -> sys_inv (run st evs).
  Proof.
    induction evs as [|e evs IH]; intros st Hi Hf; cbn; auto.
    inversion Hf; subst. apply IH; auto. apply sys_inv_step; auto.
  Qed.

  Lemma sent_is_queued evs : forall st, s_sent (run st evs) = s_sent st ++ ev_msgs evs.
  Proof.
    induction evs as [|e evs IH]; intros st.
    - cbn. now rewrite app_nil_r.
    - change (run st (e :: evs)) with (run (step st e) evs).
      rewrite IH. destruct e; cbn.
      + now rewrite <- app_assoc.
      + now destruct (do_out (s_snd st) maxb scr).
      + now destruct (do_in (s_rcv st) maxb scr (s_pipe st)) as [[? ?] ?].
  Qed.

  (* ---- prefix safety: for every event list *)
  Theorem prefix_safety evs :
    Forall ev_wf evs ->
    exists tl, flat_m (ev_msgs evs) = flat_o (s_dlv (run sys0 evs)) ++ tl.
  Proof.
    intros Hf.
    destruct (sys_inv_run evs sys0 sys_inv_init Hf) as (Hwf & HS & c & Hw & HR).
    rewrite sent_is_queued in Hwf, Hw. cbn in Hwf, Hw.
    eapply decode_prefix; eauto.
  Qed.

  (* ---- completeness: nothing left to write, nothing in flight => delivered = queued *)
  Theorem completeness evs :
    Forall ev_wf evs ->
    rem (s_snd (run sys0 evs)) = [] -> s_pipe (run sys0 evs) = [] ->
    flat_o (s_dlv (run sys0 evs)) ++ fin (s_rcv (run sys0 evs)) = flat_m (ev_msgs evs).
  Proof.
    intros Hf Hr Hp.
    destruct (sys_inv_run evs sys0 sys_inv_init Hf) as (Hwf & HS & c & Hw & HR).
    rewrite Hr, Hp in Hw. cbn in Hw. rewrite app_nil_r in Hw. subst c.
    rewrite sent_is_queued in Hwf, HR. cbn in Hwf, HR.
    eapply decode_complete; eauto.
  Qed.

  (* ---- fair completion *)
  Variable mu : S -> nat.      (* sender work that moves no byte (skipping empty Messages) *)
  Hypothesis out_progress : forall s ms maxb scr s' x,
      Forall wfm ms -> SI s ms -> do_out s maxb scr = (s', x) ->
      (mu s' <= mu s)%nat /\
      (rem s <> [] -> (1 <= maxb)%N -> (1 <= io_k scr)%N -> x <> [] \/ (mu s' < mu s)%nat).
  Hypothesis in_progress : forall ms r c o maxb scr pipe rest r' o' pipe',
      Forall wfm ms -> wire ms = c ++ pipe ++ rest -> RRel r c o ->
      do_in r maxb scr pipe = (r', o', pipe') ->
      pipe <> [] -> (1 <= maxb)%N -> (1 <= io_k scr)%N -> (length pipe' < length pipe)%nat.

  Definition measure (st : sys) : nat := 2 * length (rem (s_snd st)) + length (s_pipe st) + mu (s_snd st).
  Definition quiet (st : sys) : Prop := rem (s_snd st) = [] /\ s_pipe st = [].

  Definition no_queue (e : event M) : Prop := match e with EQueue _ => False | _ => True end.
  Definition productive_out (e : event M) : Prop :=
    match e with EOut maxb scr => (1 <= maxb)%N /\ (1 <= io_k scr)%N | _ => False end.
  Definition productive_in (e : event M) : Prop :=
    match e with EIn maxb scr => (1 <= maxb)%N /\ (1 <= io_k scr)%N | _ => False end.

  (* one I/O event never increases the measure; if the measure stays, nothing has moved; a productive
     event decreases it unless there is nothing for it to move *)
  Lemma step_measure st e :
    sys_inv st -> no_queue e ->
    (measure (step st e) <= measure st)%nat /\
    (measure (step st e) = measure st ->
       rem (s_snd (step st e)) = rem (s_snd st) /\ s_pipe (step st e) = s_pipe st) /\
    (productive_out e -> rem (s_snd st) <> [] -> (measure (step st e) < measure st)%nat) /\
    (productive_in e -> s_pipe st <> [] -> (measure (step st e) < measure st)%nat).
  Proof.
    intros (Hwf & HS & c & Hw & HR) Hq.
    destruct e as [m | maxb scr | maxb scr]; cbn [sys_step]; [contradiction| |].
    - destruct (do_out (s_snd st) maxb scr) as [s' x] eqn:E.
      destruct (S_out _ _ _ _ _ _ Hwf HS E) as (HS' & Hx).
      destruct (out_progress _ _ _ _ _ _ Hwf HS E) as (Hmu & Hpr).
      unfold measure; cbn [s_snd s_pipe productive_out productive_in]. rewrite Hx, !app_length.
      split; [lia|]. split; [|split; [|intros []]].
      + intros Heq. destruct x; [|cbn in Heq; lia]. now rewrite app_nil_r.
      + intros [H1 H2] Hne. rewrite <- Hx in Hne. destruct (Hpr Hne H1 H2) as [Hxne | Hlt]; [|lia].
        destruct x; [contradiction|cbn; lia].
    - destruct (do_in (s_rcv st) maxb scr (s_pipe st)) as [[r' o'] p'] eqn:E.
      destruct (R_in _ _ _ _ _ _ _ _ _ _ _ Hwf Hw HR E) as (x & Hp & HR').
      unfold measure; cbn [s_snd s_pipe productive_out productive_in].
      split; [rewrite Hp, app_length; lia|]. split; [|split; [intros []|]].
      + intros Heq. rewrite Hp, app_length in Heq. destruct x; [auto|cbn in Heq; lia].
      + intros [H1 H2] Hne.
        pose proof (in_progress _ _ _ _ _ _ _ _ _ _ _ Hwf Hw HR E Hne H1 H2) as Hlt. lia.
  Qed.

  Lemma quiet_step st e : sys_inv st -> no_queue e -> quiet st -> quiet (step st e).
  Proof.
    intros (Hwf & HS & c & Hw & HR) Hq [Hr Hp].
    destruct e as [m | maxb scr | maxb scr]; cbn [sys_step]; [contradiction| |].
    - destruct (do_out (s_snd st) maxb scr) as [s' x] eqn:E.
      destruct (S_out _ _ _ _ _ _ Hwf HS E) as (HS' & Hx).
      rewrite Hr in Hx. symmetry in Hx. apply app_eq_nil in Hx. destruct Hx as [-> Hx].
      split; cbn; auto. now rewrite Hp.
    - destruct (do_in (s_rcv st) maxb scr (s_pipe st)) as [[r' o'] p'] eqn:E.
      destruct (R_in _ _ _ _ _ _ _ _ _ _ _ Hwf Hw HR E) as (x & Hpx & HR').
      rewrite Hp in Hpx. symmetry in Hpx. apply app_eq_nil in Hpx. destruct Hpx as [_ ->].
      split; cbn; auto.
  Qed.

  Lemma run_app a b st : run st (a ++ b) = run (run st a) b.
  Proof. unfold sys_run. apply fold_left_app. Qed.

  Lemma quiet_run evs : forall st,
    sys_inv st -> Forall no_queue evs -> quiet st -> quiet (run st evs).
  Proof.
    induction evs as [|e evs IH]; intros st Hi Hn Hq; [exact Hq|].
    change (run st (e :: evs)) with (run (step st e) evs).
    inversion Hn; subst. apply IH; auto.
    - apply sys_inv_step; auto. destruct e; cbn in *; tauto.
    - apply quiet_step; auto.
  Qed.

  (* a round: any list of I/O calls among which there is a productive DoOutput and a productive DoInput *)
  Definition round (evs : list (event M)) : Prop :=
    Forall no_queue evs /\ Exists productive_out evs /\ Exists productive_in evs.

  Lemma no_queue_wf e : no_queue e -> ev_wf e.
  Proof. destruct e; cbn; tauto. Qed.

  Lemma run_measure_le evs : forall st,
    sys_inv st -> Forall no_queue evs -> (measure (run st evs) <= measure st)%nat.
  Proof.
    induction evs as [|e evs IH]; intros st Hi Hn; [cbn; auto|].
    change (run st (e :: evs)) with (run (step st e) evs).
    inversion Hn; subst.
    pose proof (step_measure st e Hi H1) as [Hle _].
    specialize (IH (step st e) (sys_inv_step _ _ Hi (no_queue_wf _ H1)) H2). lia.
  Qed.

  (* over a list of I/O calls in which the measure does not drop: a productive DoOutput among them
     means nothing was left to write, a productive DoInput that nothing was in flight *)
  Lemma run_stuck evs : forall st,
    sys_inv st -> Forall no_queue evs -> measure (run st evs) = measure st ->
    (Exists productive_out evs -> rem (s_snd st) = []) /\
    (Exists productive_in evs -> s_pipe st = []).
  Proof.
    induction evs as [|e evs IH]; intros st Hi Hn Hm.
    - split; intros H; inversion H.
    - change (run st (e :: evs)) with (run (step st e) evs) in Hm.
      inversion Hn; subst.
      pose proof (sys_inv_step _ _ Hi (no_queue_wf _ H1)) as Hi'.
      pose proof (step_measure st e Hi H1) as (Hle & Hsame & Hpo & Hpi).
      pose proof (run_measure_le evs _ Hi' H2) as Hle2.
      destruct (IH _ Hi' H2 ltac:(lia)) as [IHo IHi].
      destruct (Hsame ltac:(lia)) as [Hs1 Hs2].
      split; intros Hex; inversion Hex; subst.
      + destruct (rem (s_snd st)) eqn:Er; auto.
        exfalso. assert (measure (step st e) < measure st)%nat by (apply Hpo; auto; congruence). lia.
      + rewrite <- Hs1. auto.
      + destruct (s_pipe st) eqn:Ep; auto.
        exfalso. assert (measure (step st e) < measure st)%nat by (apply Hpi; auto; congruence). lia.
      + rewrite <- Hs2. auto.
  Qed.

  Lemma round_progress evs st :
    sys_inv st -> round evs -> quiet (run st evs) \/ (measure (run st evs) < measure st)%nat.
  Proof.
    intros Hi (Hn & Ho & Hin).
    pose proof (run_measure_le evs st Hi Hn) as Hle.
    destruct (Nat.eq_dec (measure (run st evs)) (measure st)) as [Heq|Hne]; [|right; lia].
    left. destruct (run_stuck evs st Hi Hn Heq) as [H1 H2].
    (* quiet at the start, and quiet is stable *)
    apply quiet_run; auto. split; auto.
  Qed.

  Lemma rounds_progress (rs : list (list (event M))) : forall st,
    sys_inv st -> Forall round rs -> (measure st <= length rs)%nat ->
    quiet (run st (concat rs)).
  Proof.
    induction rs as [|r rs IH]; intros st Hi Hr Hm; cbn [concat length] in *.
    - unfold measure in Hm. cbn. split.
      + destruct (rem (s_snd st)); auto; cbn in Hm; lia.
      + destruct (s_pipe st); auto; cbn in Hm; lia.
    - inversion Hr; subst. rewrite run_app.
      destruct H1 as (Hn & Ho & Hin).
      assert (Hi' : sys_inv (run st r)).
      { apply sys_inv_run; auto. eapply Forall_impl; [|exact Hn]. apply no_queue_wf. }
      destruct (round_progress r st Hi (conj Hn (conj Ho Hin))) as [Hq | Hlt].
      + (* already quiet: stays quiet *)
        assert (Hnq : Forall no_queue (concat rs)).
        { apply Forall_concat. eapply Forall_impl; [|exact H2]. intros a (Ha & _). exact Ha. }
        apply quiet_run; auto.
      + apply IH; auto. lia.
  Qed.

  Theorem fair_completion evs (rs : list (list (event M))) :
    Forall ev_wf evs -> Forall round rs ->
    (measure (run sys0 evs) <= length rs)%nat ->
    let st := run sys0 (evs ++ concat rs) in
    quiet st /\ flat_o (s_dlv st) ++ fin (s_rcv st) = flat_m (ev_msgs evs).
  Proof.
    intros Hf Hr Hm st.
    assert (Hi : sys_inv (run sys0 evs)) by (apply sys_inv_run; auto using sys_inv_init).
    assert (Hq : quiet st).
    { subst st. rewrite run_app. apply rounds_progress; auto. }
    split; auto.
    assert (Hnq : Forall no_queue (concat rs)).
    { apply Forall_concat. eapply Forall_impl; [|exact Hr]. intros a (Ha & _). exact Ha. }
    assert (Hf2 : Forall ev_wf (evs ++ concat rs)).
    { apply Forall_app; split; auto. eapply Forall_impl; [|exact Hnq]. apply no_queue_wf. }
    destruct Hq as [Hq1 Hq2].
    pose proof (completeness (evs ++ concat rs) Hf2 Hq1 Hq2) as Hc.
    subst st. rewrite Hc. f_equal.
    unfold ev_msgs. rewrite flat_map_app.
    assert (Hz : flat_map (fun e : event M => match e with EQueue m => [m] | _ => [] end) (concat rs) = []).
    { clear - Hnq. induction (concat rs) as [|e l IH]; cbn; auto.
      inversion Hnq; subst. destruct e; cbn in *; [contradiction| |]; auto. }
    rewrite Hz. apply app_nil_r.
  Qed.
End Generic.

(* ---------------------------------------------------------------- byte machines
   Every receiver model has a byte-at-a-time reference machine: a step [byte] and its fold over a
   chunk.  The models' f_feed, t_feed, sl_feed and mg_feed are convertible to [bfeed] of their step,
   so the lemmas below apply to them as they stand; wr_feed passes an extra argument through its
   recursion and equals [bfeed] by WsProofs.wr_feed_bfeed. *)
Local Open Scope N_scope.

Section ByteMachine.
  Context {Q I : Type}.
  Variable byte : Q -> N -> Q * list I.

  Fixpoint bfeed (st : Q) (bs : bytes) : Q * list I :=
    match bs with
    | [] => (st, [])
    | b :: t => let '(st1, o1) := byte st b in
                let '(st2, o2) := bfeed st1 t in (st2, o1 ++ o2)
    end.

  (* the split lemma: splitting a read changes nothing observable *)
  Lemma bfeed_app a : forall st b,
    bfeed st (a ++ b) =
    let '(st1, o1) := bfeed st a in let '(st2, o2) := bfeed st1 b in (st2, o1 ++ o2).
  Proof.
    induction a as [|x a IH]; intros st b; cbn [app bfeed].
    - now destruct (bfeed st b).
    - destruct (byte st x) as [st1 o1]. rewrite IH.
      destruct (bfeed st1 a) as [st2 o2], (bfeed st2 b) as [st3 o3]. now rewrite app_assoc.
  Qed.

  Lemma bfeed_stuck st : (forall b, byte st b = (st, [])) -> forall x, bfeed st x = (st, []).
  Proof. intros H x. induction x as [|b t IH]; cbn [bfeed]; [reflexivity|]. now rewrite H, IH. Qed.

  (* filling a buffer: the states [mk g] take bytes into g, silently, until |g| reaches [target],
     where [fin] says what happens; [lo] is a length the buffer is known to have already *)
  Section Fill.
    Variables (mk : bytes -> Q) (fin : bytes -> Q * list I) (lo target : N).
    Hypothesis below : forall g b, lo <= blen g -> blen g + 1 < target -> byte (mk g) b = (mk (g ++ [b]), []).
    Hypothesis reach : forall g b, lo <= blen g -> blen g + 1 = target -> byte (mk g) b = fin (g ++ [b]).

    Lemma bfeed_below x : forall g,
      lo <= blen g -> blen g + blen x < target -> bfeed (mk g) x = (mk (g ++ x), []).
    Proof.
      induction x as [|b t IH]; intros g Hlo H; [now rewrite app_nil_r|].
      rewrite blen_cons in H. cbn [bfeed].
      rewrite below, IH, <- app_assoc; rewrite ?blen_app, ?blen_cons; try reflexivity; change (blen []) with 0; lia.
    Qed.

    Lemma bfeed_reach x : forall g,
      lo <= blen g -> x <> [] -> blen g + blen x = target -> bfeed (mk g) x = fin (g ++ x).
    Proof.
      induction x as [|b t IH]; intros g Hlo Hx H; [contradiction|].
      rewrite blen_cons in H. cbn [bfeed]. destruct t as [|b' t'].
      - change (blen []) with 0 in H. rewrite reach by lia. cbn [bfeed]. destruct (fin (g ++ [b])). now rewrite app_nil_r.
      - rewrite blen_cons in H.
        rewrite below, IH, <- app_assoc; rewrite ?blen_app, ?blen_cons; try discriminate; change (blen []) with 0; try lia.
        now destruct (fin _).
    Qed.
  End Fill.
End ByteMachine.

(* ---------------------------------------------------------------- the framing argument
   What a gateway pair has to supply, as two sets of laws over the same Message domain and wire
   image.  The sender laws are the sender hypotheses of Section Generic.  The receiver laws say that
   the receiver DECODES: a DoInput call does what feeding the bytes it consumed to a byte machine
   does ([view] maps a receiver state to the machine state it stands for), and feeding the wire
   image of a list of Messages, from the start, yields those Messages and a [final] state.  A
   [dead] state (error status set) absorbs every byte; a call may fail to progress only there. *)
Section Laws.
  Context {M O S R I Q : Type}.
  Variable queue : S -> M -> S.
  Variable do_out : S -> N -> list N -> S * bytes.
  Variable do_in : R -> N -> list N -> bytes -> R * list O * bytes.
  Variable s0 : S.
  Variable r0 : R.
  Variable wfm : M -> Prop.
  Variable wire : list M -> bytes.
  Variable flat_m : list M -> list I.
  Variable flat_o : list O -> list I.
  Variable rem : S -> bytes.
  Variable mu : S -> nat.
  Variable SI : S -> list M -> Prop.
  Variable byte : Q -> N -> Q * list I.
  Variable view : R -> Q.
  Variable Rinv : R -> Prop.
  Variables final dead : Q -> Prop.

  Record sender_laws : Prop := {
    sl_wire_nil : wire [] = [];
    sl_init : SI s0 [] /\ rem s0 = [];
    sl_queue : forall s ms m, Forall wfm ms -> wfm m -> SI s ms ->
      SI (queue s m) (ms ++ [m]) /\
      exists d, rem (queue s m) = rem s ++ d /\ wire (ms ++ [m]) = wire ms ++ d;
    sl_out : forall s ms maxb scr s' x, Forall wfm ms -> SI s ms -> do_out s maxb scr = (s', x) ->
      SI s' ms /\ rem s = x ++ rem s';
    sl_progress : forall s ms maxb scr s' x, Forall wfm ms -> SI s ms -> do_out s maxb scr = (s', x) ->
      (mu s' <= mu s)%nat /\
      (rem s <> [] -> (1 <= maxb)%N -> (1 <= io_k scr)%N -> x <> [] \/ (mu s' < mu s)%nat) }.

  Record decoder_laws : Prop := {
    dl_flat_nil : flat_o [] = [];
    dl_flat_app : forall a b, flat_o (a ++ b) = flat_o a ++ flat_o b;
    dl_init : Rinv r0;
    dl_in : forall ms r c maxb scr pipe rest r' o' pipe',
      Forall wfm ms -> wire ms = c ++ pipe ++ rest -> Rinv r -> do_in r maxb scr pipe = (r', o', pipe') ->
      exists x, pipe = x ++ pipe' /\ Rinv r' /\ bfeed byte (view r) x = (view r', flat_o o');
    dl_wire : forall ms, Forall wfm ms ->
      exists q, final q /\ bfeed byte (view r0) (wire ms) = (q, flat_m ms);
    dl_dead : forall q, dead q -> forall b, byte q b = (q, []);
    dl_final : forall q, final q -> ~ dead q;
    dl_progress : forall ms r c maxb scr pipe rest r' o' pipe',
      Forall wfm ms -> wire ms = c ++ pipe ++ rest -> Rinv r -> ~ dead (view r) ->
      do_in r maxb scr pipe = (r', o', pipe') ->
      pipe <> [] -> (1 <= maxb)%N -> (1 <= io_k scr)%N -> (length pipe' < length pipe)%nat }.

  Hypothesis HS : sender_laws.
  Hypothesis HD : decoder_laws.

  (* r has consumed c in all and delivered o in all *)
  Definition dec_RRel (r : R) (c : bytes) (o : list O) : Prop :=
    Rinv r /\ bfeed byte (view r0) c = (view r, flat_o o).

  Lemma dec_R_init : dec_RRel r0 [] [].
  Proof. split; [apply HD|]. cbn. now rewrite (dl_flat_nil HD). Qed.

  Lemma dec_R_in ms r c o maxb scr pipe rest r' o' pipe' :
    Forall wfm ms -> wire ms = c ++ pipe ++ rest -> dec_RRel r c o ->
    do_in r maxb scr pipe = (r', o', pipe') ->
    exists x, pipe = x ++ pipe' /\ dec_RRel r' (c ++ x) (o ++ o').
  Proof.
    intros Hwf Hw [Hi Hc] H. destruct (dl_in HD _ _ _ _ _ _ _ _ _ _ Hwf Hw Hi H) as (x & Hp & Hi' & Hf).
    exists x. split; [exact Hp|]. split; [exact Hi'|]. now rewrite bfeed_app, Hc, Hf, (dl_flat_app HD).
  Qed.

  (* a prefix c of a good wire: what remains leads from the state reached to a final state *)
  Lemma dec_rest ms r c o rest :
    Forall wfm ms -> wire ms = c ++ rest -> dec_RRel r c o ->
    exists q o2, final q /\ bfeed byte (view r) rest = (q, o2) /\ flat_m ms = flat_o o ++ o2.
  Proof.
    intros Hwf Hw [_ Hc]. destruct (dl_wire HD ms Hwf) as (q & Hq & Hall).
    rewrite Hw, bfeed_app, Hc in Hall. destruct (bfeed byte (view r) rest) as [q2 o2].
    inversion Hall; subst. eauto.
  Qed.

  Lemma dec_prefix ms r c o rest :
    Forall wfm ms -> wire ms = c ++ rest -> dec_RRel r c o -> exists tl, flat_m ms = flat_o o ++ tl.
  Proof. intros Hwf Hw Hc. destruct (dec_rest ms r c o rest Hwf Hw Hc) as (q & o2 & _ & _ & H). eauto. Qed.

  Lemma dec_all ms r o :
    Forall wfm ms -> dec_RRel r (wire ms) o -> final (view r) /\ flat_o o ++ [] = flat_m ms.
  Proof.
    intros Hwf Hc. destruct (dec_rest ms r (wire ms) o [] Hwf (eq_sym (app_nil_r _)) Hc) as (q & o2 & Hq & Hf & H).
    inversion Hf; subst. now rewrite H.
  Qed.

  Lemma dec_alive ms r c o rest :
    Forall wfm ms -> wire ms = c ++ rest -> dec_RRel r c o -> ~ dead (view r).
  Proof.
    intros Hwf Hw Hc Hd. destruct (dec_rest ms r c o rest Hwf Hw Hc) as (q & o2 & Hq & Hf & _).
    rewrite (bfeed_stuck byte _ (dl_dead HD _ Hd)) in Hf. inversion Hf; subst. exact (dl_final HD _ Hq Hd).
  Qed.

  Notation run := (sys_run queue do_out do_in).
  Notation st0 := (@sys0 M O S R s0 r0).

  Theorem link_prefix_safety evs :
    Forall (ev_wf wfm) evs -> exists tl, flat_m (ev_msgs evs) = flat_o (s_dlv (run st0 evs)) ++ tl.
  Proof.
    exact (prefix_safety queue do_out do_in s0 r0 wfm wire flat_m flat_o rem SI dec_RRel
             (sl_wire_nil HS) (sl_init HS) (sl_queue HS) (sl_out HS) dec_R_init dec_R_in dec_prefix evs).
  Qed.

  Lemma link_inv evs : Forall (ev_wf wfm) evs -> sys_inv wfm wire rem SI dec_RRel (run st0 evs).
  Proof.
    apply (sys_inv_run queue do_out do_in wfm wire rem SI dec_RRel (sl_queue HS) (sl_out HS) dec_R_in).
    exact (sys_inv_init s0 r0 wfm wire rem SI dec_RRel (sl_wire_nil HS) (sl_init HS) dec_R_init).
  Qed.

  Lemma link_complete evs :
    Forall (ev_wf wfm) evs -> rem (s_snd (run st0 evs)) = [] -> s_pipe (run st0 evs) = [] ->
    flat_o (s_dlv (run st0 evs)) = flat_m (ev_msgs evs) /\ final (view (s_rcv (run st0 evs))).
  Proof.
    intros Hf Hr Hp. destruct (link_inv evs Hf) as (Hwf & _ & c & Hw & HR).
    rewrite Hr, Hp, !app_nil_r in Hw. subst c. destruct (dec_all _ _ _ Hwf HR) as [Hfin Hall].
    rewrite sent_is_queued, app_nil_r in Hall. now split.
  Qed.

  Theorem link_completeness evs :
    Forall (ev_wf wfm) evs -> rem (s_snd (run st0 evs)) = [] -> s_pipe (run st0 evs) = [] ->
    flat_o (s_dlv (run st0 evs)) = flat_m (ev_msgs evs).
  Proof. intros Hf Hr Hp. exact (proj1 (link_complete evs Hf Hr Hp)). Qed.

  (* at completion the receiver is in a final state as well *)
  Theorem link_receiver_final evs :
    Forall (ev_wf wfm) evs -> rem (s_snd (run st0 evs)) = [] -> s_pipe (run st0 evs) = [] ->
    final (view (s_rcv (run st0 evs))).
  Proof. intros Hf Hr Hp. exact (proj2 (link_complete evs Hf Hr Hp)). Qed.

  Theorem link_fair_completion evs (rs : list (list (event M))) :
    Forall (ev_wf wfm) evs -> Forall round rs ->
    (measure rem mu (run st0 evs) <= length rs)%nat ->
    let st := run st0 (evs ++ concat rs) in
    quiet rem st /\ flat_o (s_dlv st) = flat_m (ev_msgs evs).
  Proof.
    intros Hf Hr Hm.
    pose proof (fair_completion queue do_out do_in s0 r0 wfm wire flat_m flat_o (fun _ => []) rem SI dec_RRel
             (sl_wire_nil HS) (sl_init HS) (sl_queue HS) (sl_out HS) dec_R_init dec_R_in
             (fun ms r o Hwf Hc => proj2 (dec_all ms r o Hwf Hc)) mu (sl_progress HS)) as H.
    cbv zeta in *. rewrite <- (app_nil_r (flat_o _)). apply H; auto.
    intros ms r c o maxb scr pipe rest r' o' pipe' Hwf Hw Hc.
    exact (dl_progress HD ms r c maxb scr pipe rest r' o' pipe' Hwf Hw (proj1 Hc) (dec_alive ms r c o _ Hwf Hw Hc)).
  Qed.
End Laws.

Arguments sl_wire_nil {M S queue do_out s0 wfm wire rem mu SI}.
Arguments sl_init {M S queue do_out s0 wfm wire rem mu SI}.
Arguments sl_queue {M S queue do_out s0 wfm wire rem mu SI}.
Arguments sl_out {M S queue do_out s0 wfm wire rem mu SI}.
Arguments sl_progress {M S queue do_out s0 wfm wire rem mu SI}.
Arguments link_prefix_safety {M O S R I Q queue do_out do_in s0 r0 wfm wire flat_m flat_o rem mu SI byte view Rinv final dead}.
Arguments link_completeness {M O S R I Q queue do_out do_in s0 r0 wfm wire flat_m flat_o rem mu SI byte view Rinv final dead}.
Arguments link_fair_completion {M O S R I Q queue do_out do_in s0 r0 wfm wire flat_m flat_o rem mu SI byte view Rinv final dead}.
Arguments link_receiver_final {M O S R I Q queue do_out do_in s0 r0 wfm wire flat_m flat_o rem mu SI byte view Rinv final dead}.
