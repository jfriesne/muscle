(* C12 -- Gw/TunnelTheorems.v: the theorems about the PacketTunnelIOGateway model, assembled from TunnelProofs (codec,
   table), TunnelSound, TunnelSender (chain), TunnelComplete and TunnelDrain (output loop, run of a sender). *)
From Coq Require Import List NArith Bool Lia.
From Coq Require Import Strings.Byte.
From Muscle Require Import Common.LE Gen.Consts Gw.Tunnel Gw.TunnelProofs Gw.TunnelSound Gw.TunnelSender Gw.TunnelComplete Gw.TunnelDrain.
Import ListNotations.
Local Open Scope N_scope.

(* ------------------------------------------------------------------ a sender's whole life *)

Record sender_run := mkRun { sr_cfg : scfg; sr_id0 : N; sr_ops : list sop }.

Definition sr_packets (s : sender_run) : list packet := snd (srun (sr_cfg s) (s_init (sr_id0 s)) (sr_ops s)).
Definition sr_msgs (s : sender_run) : list msg := added (sr_ops s).
Definition sr_hist (s : sender_run) : hist := assign (sr_id0 s) (sr_msgs s).

(* the premises of the property about one sender: its message ids never repeat (at most 2^32
   Messages in its life), sizes are uint32, the harness-only counter poke is not used *)
Definition sr_ok (s : sender_run) : Prop :=
  scfg_ok (sr_cfg s) /\ sr_id0 s < two32 /\ no_setid (sr_ops s)
  /\ N.of_nat (length (sr_msgs s)) <= two32 /\ Forall (fun m => lenN m < two32) (sr_msgs s).

Lemma Forall_concat_inv {A} (P : A -> Prop) (ls : list (list A)) :
  Forall P (concat ls) -> Forall (Forall P) ls.
Proof.
  induction ls as [|l ls IH]; cbn [concat]; intros H; [constructor|].
  apply Forall_app in H as [H1 H2]. constructor; auto.
Qed.

Lemma enc_frags_nil_inv fs : enc_frags fs = [] -> fs = [].
Proof.
  destruct fs as [|f fs]; [reflexivity|]. intros E. exfalso.
  assert (H : lenN (enc_frags (f :: fs)) = 0) by now rewrite E.
  rewrite enc_frags_cons, lenN_app, lenN_enc_frag, FHS_val in H. lia.
Qed.

(* everything a sender writes is the encoding of slices of its own Messages, under their own ids *)
Lemma sent_packets_spec s :
  sr_ok s ->
  exists fss pend,
    sr_packets s = map enc_frags fss
    /\ Forall (Forall (valid (sr_hist s))) fss
    /\ Forall (Forall wire_ok) fss
    /\ Forall (fun p => lenN p <= sc_mtu (sr_cfg s)) (sr_packets s)
    /\ (let st := fst (srun (sr_cfg s) (s_init (sr_id0 s)) (sr_ops s)) in
        s_pkt st = enc_frags pend
        /\ chain (sr_cfg s) (sr_id0 s) 0 (sr_msgs s) (concat fss ++ pend) (s_id st) (s_off st) (s_q st)).
Proof.
  intros (Hc & Hid & Hns & Hlen & Hsz). unfold sr_packets.
  destruct (srun (sr_cfg s) (s_init (sr_id0 s)) (sr_ops s)) as [st pkts] eqn:E.
  destruct Hc as (Hc1 & Hc2 & Hc3).
  destruct (srun_spec (sr_cfg s) (sr_id0 s) (sr_ops s) [] [] _ _ _ Hc3 Hns (sinv_init _ _) E)
    as (fss & -> & [(pend & Hpkt & Hch) _] & Hall).
  cbn [app] in Hch. fold (sr_msgs s) in Hch.
  exists fss, pend. cbn [fst snd].
  pose proof (chain_valid _ _ _ _ _ _ _ _ Hch) as Hv. apply Forall_app in Hv as [Hv _].
  destruct (chain_wire_ok _ _ _ _ _ _ _ _ Hch (conj Hc1 (conj Hc2 Hc3)) Hid Hsz) as [Hw _].
  apply Forall_app in Hw as [Hw _].
  repeat split; try assumption; now apply Forall_concat_inv.
Qed.

Lemma accepted_Forall rc (P : frag -> Prop) fs : Forall P fs -> Forall P (accepted rc fs).
Proof.
  induction fs as [|f fs IH]; intros H; [constructor|]. inversion H; subst. cbn [accepted].
  destruct ((f_magic f =? rc_magic rc) && sex_ok rc (f_sex f)); [|constructor].
  destruct (f_total f <=? rc_max_in rc); [constructor|]; auto.
Qed.

(* ------------------------------------------------------------------ soundness *)

Lemma genuine_frags rc s p :
  4 <= rc_mtu rc -> sr_ok s -> In p (sr_packets s) \/ foreign (rc_magic rc) p ->
  NoDup (map fst (sr_hist s)) /\ Forall (valid (sr_hist s)) (frags_of rc p).
Proof.
  intros Hmtu Hsok Hp. split.
  - destruct Hsok as (_ & Hid & _ & Hlen & _). now apply assign_nodup.
  - unfold frags_of. destruct Hp as [Hsent|Hfor].
    + destruct (sent_packets_spec s Hsok) as (fss & pend & Epk & Hv & Hw & _).
      rewrite Epk in Hsent. apply in_map_iff in Hsent as (fs & <- & Hfs).
      rewrite Forall_forall in Hv, Hw.
      destruct (parse_truncated rc fs (length (takeN (rc_mtu rc) (enc_frags fs))) (rc_mtu rc) (Hw fs Hfs))
        as (fs1 & fs2 & E & ->).
      apply accepted_Forall. specialize (Hv fs Hfs). rewrite E in Hv. now apply Forall_app in Hv.
    + rewrite parse_foreign; [constructor|]. unfold foreign in Hfor. now rewrite first_word_takeN.
Qed.

(* THE PROPERTY, first clause, for either setting of SetAllowMiscIncomingData.  Over a network that may lose,
   duplicate and reorder packets, inject datagrams not carrying the tunnel's magic under a sender's address,
   and inject ARBITRARY bytes under any other address: every buffer handed to the receiver under the address
   of a sender is bit-identical to a Message that this sender was given.  (Fragments of different Messages
   or of different senders are never combined.)  With the mode on, the only additional things handed over are
   datagrams that are NOT in tunnel format (too short for a fragment header, or not starting with the magic),
   verbatim as cut to the receiver's MTU.  No relation between the MTUs is assumed: a receiver with a smaller
   MTU sees truncated datagrams. *)
Theorem tunnel_sound_misc :
  forall (rc : rcfg) (who : addr -> option sender_run) (net : list (addr * packet)) t out,
    4 <= rc_mtu rc ->
    (forall a s, who a = Some s -> sr_ok s) ->
    (forall a s p, who a = Some s -> In (a, p) net -> In p (sr_packets s) \/ foreign (rc_magic rc) p) ->
    recv_all rc [] net = (t, out) ->
    forall a s m, who a = Some s -> In (a, m) out ->
      In m (sr_msgs s) \/ exists p, In (a, p) net /\ misc_passed rc p m.
Proof.
  intros rc who net t out Hmtu Hok Hnet Hrun a s m Ha Hin.
  set (who' := fun b => option_map sr_hist (who b)).
  assert (Hgen : forall b p h, In (b, p) net -> who' b = Some h ->
                   NoDup (map fst h) /\ Forall (valid h) (frags_of rc p)).
  { intros b p h Hbp Hb. unfold who' in Hb. destruct (who b) as [sb|] eqn:Ewb; [|discriminate].
    injection Hb as <-. apply genuine_frags; eauto. }
  destruct (recv_all_sound rc who' net [] t out Hgen (tbl_good_nil _) Hrun) as [_ Hout].
  specialize (Hout a m (sr_hist s) Hin). unfold who' in Hout. rewrite Ha in Hout. specialize (Hout eq_refl).
  unfold sr_hist in Hout. now rewrite assign_snd in Hout.
Qed.

Theorem tunnel_sound :
  forall (rc : rcfg) (who : addr -> option sender_run) (net : list (addr * packet)) t out,
    rc_misc rc = false -> 4 <= rc_mtu rc ->
    (forall a s, who a = Some s -> sr_ok s) ->
    (forall a s p, who a = Some s -> In (a, p) net -> In p (sr_packets s) \/ foreign (rc_magic rc) p) ->
    recv_all rc [] net = (t, out) ->
    forall a s m, who a = Some s -> In (a, m) out -> In m (sr_msgs s).
Proof.
  intros rc who net t out Hmisc Hmtu Hok Hnet Hrun a s m Ha Hin.
  destruct (tunnel_sound_misc rc who net t out Hmtu Hok Hnet Hrun a s m Ha Hin) as [Hm|(p & _ & Hon & _)];
    [exact Hm|congruence].
Qed.

(* ------------------------------------------------------------------ completeness *)

(* THE PROPERTY, second clause.  When the transport delivers every packet once and in order (to a
   receiver that has no state for this source yet -- whatever it holds for other sources), the
   receiver hands over exactly the Messages the sender has completely written, that fit the
   receiver's size limit: once each, in order; for every MTU, every interleaving of
   AddOutgoingMessage / DoOutput calls, every byte limit, every pattern of the transport refusing writes.
   [s_pkt st = []]: no packet is still held back by the sender; [s_q st] are the Messages not yet
   (completely) written. *)
Theorem tunnel_complete :
  forall rc c a id0 ops st pkts t0,
    scfg_ok c -> compat c rc -> id0 < two32 -> no_setid ops ->
    N.of_nat (length (added ops)) <= two32 ->
    Forall (fun m => lenN m < two32) (added ops) ->
    srun c (s_init id0) ops = (st, pkts) ->
    s_pkt st = [] ->
    tbl_wf t0 -> tbl_find a t0 = None ->
    exists done,
      added ops = done ++ s_q st
      /\ snd (recv_all rc t0 (map (pair a) pkts)) = map (pair a) (filter (fits rc) done).
Proof.
  intros rc c a id0 ops st pkts t0 Hc Hcompat Hid Hns Hlen Hsz Hrun Hpk Hwf Hnone.
  unfold compat in Hcompat. destruct Hcompat as (Hmg & Hsx & Hmtu).
  pose (s := mkRun c id0 ops).
  destruct (sent_packets_spec s (conj Hc (conj Hid (conj Hns (conj Hlen Hsz)))))
    as (fss & pend & Epk & Hv & Hw & Hsizes & Hst).
  unfold sr_packets, s in Epk, Hsizes, Hst. cbn [sr_cfg sr_id0 sr_ops] in Epk, Hsizes, Hst.
  rewrite Hrun in Epk, Hsizes, Hst. cbn [fst snd] in Epk, Hsizes, Hst.
  destruct Hst as [Hpend Hch]. rewrite Hpk in Hpend. symmetry in Hpend. apply enc_frags_nil_inv in Hpend. subst pend.
  rewrite app_nil_r in Hch. unfold sr_msgs in Hch. cbn [sr_ops] in Hch.
  assert (Hsync : sync rc None id0 0 (added ops)).
  { destruct (added ops); [exact I|]. cbn [sync]. rewrite N.eqb_refl. exact I. }
  destruct (rs_chain rc c _ _ _ _ _ _ _ Hch (conj Hmg Hsx) Hid Hlen Hsz None Hsync) as (o' & done & Hd & Hsteps & _).
  exists done. split; [exact Hd|].
  assert (Hall : Forall (fun fs => Forall wire_ok fs /\ lenN (enc_frags fs) <= rc_mtu rc
                    /\ Forall (fun f => (f_magic f =? rc_magic rc) && sex_ok rc (f_sex f) = true) fs) fss).
  { pose proof (chain_compat _ _ _ _ _ _ _ _ Hch) as Hcp. apply Forall_concat_inv in Hcp.
    rewrite Forall_forall in Hw, Hcp, Hsizes. apply Forall_forall. intros fs Hfs.
    split; [now apply Hw|]. split.
    - specialize (Hsizes (enc_frags fs)). rewrite Epk in Hsizes. specialize (Hsizes (in_map _ _ _ Hfs)). lia.
    - eapply Forall_impl; [|exact (Hcp fs Hfs)]. intros f [E1 E2]. rewrite E1, E2, Hmg, N.eqb_refl, Hsx. reflexivity. }
  pose proof (recv_frags_own t0 a (accepted rc (concat fss)) Hwf) as H. rewrite Hnone, Hsteps in H.
  rewrite Epk. etransitivity; [exact (f_equal snd (recv_all_enc rc a fss t0 Hall))|].
  destruct (recv_frags t0 a (accepted rc (concat fss))) as [t' out]. now destruct H as (_ & _ & ->).
Qed.

Lemma added_app ops1 ops2 : added (ops1 ++ ops2) = added ops1 ++ added ops2.
Proof. induction ops1 as [|[m|mb bud|id] ops1 IH]; cbn [app added]; [reflexivity| |exact IH|exact IH]. now rewrite IH. Qed.

Lemma no_setid_app ops1 ops2 : no_setid ops1 -> no_setid ops2 -> no_setid (ops1 ++ ops2).
Proof. induction ops1 as [|[m|mb bud|id] ops1 IH]; cbn [app no_setid]; tauto. Qed.

(* Corollary: any script at all, followed by one DoOutput call that is not cut short (byte limit and
   transport budget above what [out_fuel] bounds): EVERY Message that fits the receiver's limit is
   delivered, exactly once, in order. *)
Theorem tunnel_complete_drained :
  forall rc c a id0 ops mb bud t0,
    scfg_ok c -> compat c rc -> id0 < two32 -> no_setid ops ->
    N.of_nat (length (added ops)) <= two32 ->
    Forall (fun m => lenN m < two32) (added ops) ->
    (let st1 := fst (srun c (s_init id0) ops) in
     N.of_nat (out_fuel st1) * sc_mtu c < mb /\ N.of_nat (out_fuel st1) <= bud) ->
    tbl_wf t0 -> tbl_find a t0 = None ->
    snd (recv_all rc t0 (map (pair a) (snd (srun c (s_init id0) (ops ++ [SOut mb bud])))))
    = map (pair a) (filter (fits rc) (added ops)).
Proof.
  intros rc c a id0 ops mb bud t0 Hc Hcompat Hid Hns Hlen Hsz Hbig Hwf Hnone.
  destruct (srun c (s_init id0) (ops ++ [SOut mb bud])) as [st pkts] eqn:Hrun.
  assert (Hadd : added (ops ++ [SOut mb bud]) = added ops) by (rewrite added_app; cbn; apply app_nil_r).
  assert (Hns2 : no_setid (ops ++ [SOut mb bud])) by (apply no_setid_app; cbn; auto).
  (* the last call drains the sender *)
  assert (Hdr : s_q st = [] /\ s_pkt st = []).
  { rewrite (run_app (sstep c) (srun c) (fun _ => eq_refl) (fun _ _ _ => eq_refl)) in Hrun.
    destruct (srun c (s_init id0) ops) as [st1 p1] eqn:E1. cbn [fst] in Hbig.
    cbn [srun sstep] in Hrun. destruct (out_loop (out_fuel st1) c mb 0 bud st1) as [p2 st2] eqn:E2.
    injection Hrun as <- <-.
    destruct (srun_spec c id0 ops [] [] _ _ _ (proj2 (proj2 Hc)) Hns (sinv_init _ _) E1) as (fss & _ & Hinv1 & _).
    destruct (out_loop_spec c id0 _ _ _ _ _ _ _ _ _ (proj2 (proj2 Hc)) Hinv1 E2) as (_ & _ & _ & _ & Hdr). apply Hdr.
    split; [unfold pending, out_fuel, work; destruct (lenN (s_pkt st1) =? 0); lia|]. split; [lia|apply Hbig]. }
  destruct Hdr as [Hq Hp].
  rewrite <- Hadd in Hlen, Hsz.
  destruct (tunnel_complete rc c a id0 _ st pkts t0 Hc Hcompat Hid Hns2 Hlen Hsz Hrun Hp Hwf Hnone) as (done & Hd & Hout).
  rewrite Hq, app_nil_r in Hd. cbn [snd]. rewrite Hout, <- Hd, Hadd. reflexivity.
Qed.

(* ------------------------------------------------------------------ source exclusion *)

(* SetSourceExclusionID: a receiver ignores every packet of a sender that carries its own non-zero id --
   nothing is delivered and no receive state is created or touched *)
Theorem tunnel_self_exclusion :
  forall rc s t a p,
    rc_misc rc = false -> sr_ok s ->
    rc_sex rc <> 0 -> sc_sex (sr_cfg s) = rc_sex rc ->
    In p (sr_packets s) ->
    recv_packet rc t a p = (t, []).
Proof.
  intros rc s t a p Hmisc Hok Hnz Hsame Hin.
  destruct (sent_packets_spec s Hok) as (fss & pend & Epk & _ & Hw & _ & Hst).
  cbv zeta in Hst. destruct Hst as [_ Hch].
  rewrite Epk in Hin. apply in_map_iff in Hin as (fs & <- & Hfs).
  pose proof (chain_compat _ _ _ _ _ _ _ _ Hch) as Hcp. apply Forall_app in Hcp as [Hcp _].
  apply Forall_concat_inv in Hcp. rewrite Forall_forall in Hw, Hcp.
  assert (Hex : Forall (fun f => sex_ok rc (f_sex f) = false) fs).
  { eapply Forall_impl; [|exact (Hcp fs Hfs)]. intros f [_ E]. unfold sex_ok. rewrite E, Hsame, N.eqb_refl.
    destruct (N.eqb_spec (rc_sex rc) 0); [contradiction|reflexivity]. }
  destruct (recv_packet_cases rc a (enc_frags fs)) as [(_ & Hon & _) | ->]; [congruence|].
  (* the fragments found are leading fragments of fs, and already the first one is refused *)
  unfold frags_of. destruct (parse_truncated rc fs (length (takeN (rc_mtu rc) (enc_frags fs))) (rc_mtu rc) (Hw fs Hfs))
    as (fs1 & fs2 & E & ->).
  rewrite E in Hex. apply Forall_app in Hex as [Hex _].
  destruct Hex as [|f fs1 Sf _]; [reflexivity|]. cbn [accepted]. now rewrite Sf, andb_false_r.
Qed.

(* ------------------------------------------------------------------ the edge of the guarantee *)

(* Message ids wrap at 2^32 by design.  Two same-length Messages whose ids coincide (2^32 apart in the
   sender's life, here: the counter forced back) CAN be spliced by a reordering network: the premise
   "at most 2^32 Messages per sender" of tunnel_sound cannot be dropped. *)
Definition wrap_cfg : scfg := mkSCfg c_DEFAULT_TUNNEL_IOGATEWAY_MAGIC 0 (clamp_mtu 26).
Definition wrap_rc : rcfg := mkRCfg c_DEFAULT_TUNNEL_IOGATEWAY_MAGIC 0 (clamp_mtu 26) 4294967295 false.
Definition wrap_m1 : msg := [x01; x02; x03; x04].
Definition wrap_m2 : msg := [x11; x12; x13; x14].
Definition wrap_ops : list sop := [SAdd wrap_m1; SOut 4294967295 100; SSetId 0; SAdd wrap_m2; SOut 4294967295 100].

Lemma tunnel_wrap_refuted :
  exists net,
    (forall p, In p net -> In p (snd (srun wrap_cfg (s_init 0) wrap_ops)))
    /\ snd (recv_all wrap_rc [] (map (pair 5) net)) = [(5, [x01; x02; x13; x14])].
Proof.
  exists [nth 0 (snd (srun wrap_cfg (s_init 0) wrap_ops)) []; nth 3 (snd (srun wrap_cfg (s_init 0) wrap_ops)) []].
  split.
  - intros p [<-|[<-|[]]]; vm_compute; tauto.
  - vm_compute. reflexivity.
Qed.

(* ------------------------------------------------------------------ non-vacuity *)

(* the premises of tunnel_sound / tunnel_complete are satisfiable by a non-trivial run: three Messages
   (9, 0 and 30 bytes) through MTU 30, written by two DoOutput calls, one of which is cut short by the transport *)
Definition ex_cfg : scfg := mkSCfg c_DEFAULT_TUNNEL_IOGATEWAY_MAGIC 7 (clamp_mtu 30).
Definition ex_rc : rcfg := mkRCfg c_DEFAULT_TUNNEL_IOGATEWAY_MAGIC 0 (clamp_mtu 30) 20 false.
Definition ex_ops : list sop :=
  [SAdd (repeat x41 9); SAdd []; SOut 4294967295 1; SAdd (repeat x42 30); SOut 4294967295 100].
Definition ex_run : sender_run := mkRun ex_cfg 4294967295 ex_ops.

Example ex_run_ok : sr_ok ex_run /\ sc_mtu (sr_cfg ex_run) <= rc_mtu ex_rc /\ compat ex_cfg ex_rc.
Proof.
  split; [|split].
  - unfold sr_ok, scfg_ok. cbn [sr_cfg sr_id0 sr_ops ex_run].
    split; [split; [vm_decide|split; vm_decide]|]. split; [vm_decide|]. split; [vm_decide|]. split; [vm_decide|].
    unfold sr_msgs. cbn [sr_ops ex_run ex_ops added]. repeat constructor; vm_decide.
  - vm_decide.
  - unfold compat. split; [vm_decide|split; vm_decide].
Qed.

Example ex_run_nontrivial :
  length (sr_packets ex_run) = 8%nat
  /\ snd (recv_all ex_rc [] (map (pair 5) (sr_packets ex_run))) = [(5, repeat x41 9); (5, [])]
  /\ s_pkt (fst (srun ex_cfg (s_init 4294967295) ex_ops)) = []
  /\ s_q (fst (srun ex_cfg (s_init 4294967295) ex_ops)) = [].
Proof. vm_compute. repeat split; reflexivity. Qed.

(* non-vacuity of tunnel_self_exclusion: the same run seen by a receiver whose own id is 7 *)
Definition ex_rc7 : rcfg := mkRCfg c_DEFAULT_TUNNEL_IOGATEWAY_MAGIC 7 (clamp_mtu 30) 20 false.
Example ex_self_exclusion :
  rc_misc ex_rc7 = false /\ rc_sex ex_rc7 <> 0 /\ sc_sex (sr_cfg ex_run) = rc_sex ex_rc7
  /\ sr_packets ex_run <> [] /\ snd (recv_all ex_rc7 [] (map (pair 5) (sr_packets ex_run))) = [].
Proof. vm_compute. repeat split; discriminate. Qed.

(* ------------------------------------------------------------------ the read loop *)

(* One DoInput(maxBytes) call over a device holding [queue] does to the receiver exactly what the
   packets it consumed -- a prefix of the queue -- do one by one; what it did not consume stays queued.
   So every theorem about [recv_all] over arbitrary networks speaks about any sequence of DoInput calls. *)
Theorem recv_loop_prefix : forall rc queue t maxBytes total t' out rest,
  recv_loop rc t maxBytes total queue = (t', out, rest) ->
  exists n, rest = skipn n queue /\ recv_all rc t (firstn n queue) = (t', out).
Proof.
  intros rc. induction queue as [|[a p] q IH]; intros t mb tot t' out rest; cbn [recv_loop].
  - intros E. injection E as <- <- <-. exists 0%nat. auto.
  - destruct (tot <? mb).
    2:{ intros E. injection E as <- <- <-. exists 0%nat. auto. }
    destruct (lenN (takeN (rc_mtu rc) p) =? 0) eqn:Hz.
    + intros E. injection E as <- <- <-. exists 1%nat. split; [reflexivity|].
      cbn [firstn recv_all]. unfold recv_packet. rewrite Hz. reflexivity.
    + destruct (recv_packet rc t a p) as [t1 o1] eqn:E1.
      destruct (recv_loop rc t1 mb (tot + lenN (takeN (rc_mtu rc) p)) q) as [[t2 o2] r2] eqn:E2.
      intros E. injection E as <- <- <-.
      destruct (IH _ _ _ _ _ _ E2) as (n & Hr & Ha). exists (S n). split; [exact Hr|].
      cbn [firstn recv_all]. rewrite E1, Ha. reflexivity.
Qed.
