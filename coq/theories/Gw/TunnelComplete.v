(* C12 -- proofs about the PacketTunnelIOGateway model: completeness of the receiver.

   A receiver whose state for a source is "in step" with that source's output cursor stays in step
   while it is fed the source's fragments in order, and hands over exactly the Messages the chain
   completes (those that fit _maxIncomingMessageSize), once each, in order. *)
From Coq Require Import List NArith Bool Lia.
From Coq Require Import Strings.Byte.
From Muscle Require Import Common.LE Gw.Tunnel Gw.TunnelProofs Gw.TunnelSound Gw.TunnelSender.
Import ListNotations.
Local Open Scope N_scope.

Definition fits (rc : rcfg) (m : msg) : bool := lenN m <=? rc_max_in rc.

(* sender and receiver are configured for each other *)
Definition compat (c : scfg) (rc : rcfg) : Prop :=
  sc_magic c = rc_magic rc /\ sex_ok rc (sc_sex c) = true /\ sc_mtu c <= rc_mtu rc.

(* the receive state does not carry the id of any of the Messages q, numbered from id *)
Definition idle (o : option rstate) (id : N) (q : list msg) : Prop :=
  match o with
  | None => True
  | Some rs => ~ In (r_id rs) (map fst (assign id q))
  end.

(* the receive state is in step with the output cursor (id, off, q) *)
Definition sync (rc : rcfg) (o : option rstate) (id off : N) (q : list msg) : Prop :=
  match q with
  | [] => True
  | m :: _ =>
      if (off =? 0) || negb (fits rc m) then idle o id q
      else exists rs, o = Some rs /\ r_id rs = id /\ r_off rs = off /\ lenN (r_buf rs) = lenN m
                      /\ takeN off (r_buf rs) = takeN off m
  end.

(* ------------------------------------------------------------------ one slice arriving where it is expected *)

Lemma accept_slice c id (m : msg) off n buf :
  lenN buf = lenN m -> takeN off buf = takeN off m -> off + n <= lenN m -> lenN m < two32 ->
  exists buf',
    accept (mkR id off buf) (frag_of c id m off n) =
      (if off + n =? lenN m then (mkR id 0 [], [m]) else (mkR id (off + n) buf', []))
    /\ lenN buf' = lenN m /\ takeN (off + n) buf' = takeN (off + n) m.
Proof.
  intros HL HP Hle Hm.
  set (dat := takeN n (dropN off m)).
  assert (Hd : lenN dat = n) by (apply lenN_slice; exact Hle).
  exists (takeN off buf ++ dat ++ dropN (off + n) buf).
  assert (HL' : lenN (takeN off buf ++ dat ++ dropN (off + n) buf) = lenN m).
  { rewrite <- Hd at 1. rewrite splice_length; lia. }
  assert (HP' : takeN (off + n) (takeN off buf ++ dat ++ dropN (off + n) buf) = takeN (off + n) m).
  { rewrite <- Hd. apply splice_prefix; [lia|exact HP|]. unfold dat at 1. now rewrite Hd. }
  split; [|split; assumption].
  unfold accept. cbn [frag_of f_id f_total f_off f_data r_id r_off r_buf]. fold dat. rewrite Hd.
  rewrite N.eqb_refl. rewrite HL, !N.eqb_refl. cbn [andb].
  assert (T4 : (two32 <=? off + n) = false) by (apply N.leb_gt; lia).
  assert (T5 : (off + n <=? lenN m) = true) by (apply N.leb_le; lia).
  rewrite T4, T5. cbn [negb andb].
  destruct (off + n =? lenN m) eqn:Tfin; [|reflexivity].
  apply N.eqb_eq in Tfin. f_equal. f_equal.
  apply list_eq_of_takeN; [exact HL'|]. rewrite HL', <- Tfin. exact HP'.
Qed.

Lemma rs_step_first c o id (m : msg) n :
  match o with None => True | Some rs => r_id rs <> id end ->
  rs_step o (frag_of c id m 0 n) =
    let '(rs', out) := accept (mkR id 0 (junk (lenN m))) (frag_of c id m 0 n) in (Some rs', out).
Proof.
  intros H. unfold rs_step. destruct o as [rs|].
  - unfold restart_if_new. cbn [frag_of f_off f_id f_total]. rewrite N.eqb_refl.
    destruct (N.eqb_spec id (r_id rs)) as [E|E]; [congruence|]. cbn [negb andb]. reflexivity.
  - cbn [frag_of f_off f_id f_total]. rewrite N.eqb_refl. reflexivity.
Qed.

Lemma idle_head o id m q : idle o id (m :: q) -> match o with None => True | Some rs => r_id rs <> id end.
Proof. destruct o as [rs|]; [|trivial]. cbn [idle assign map fst In]. intros H E. apply H. now left. Qed.

Lemma idle_tail o id m q : idle o id (m :: q) -> idle o (u32 (id + 1)) q.
Proof. destruct o as [rs|]; [|trivial]. cbn [idle assign map fst In]. tauto. Qed.

(* a slice of a Message that fits, arriving at a receiver in step *)
Lemma rs_step_slice rc c o id off (m : msg) q n :
  lenN m < two32 -> off + n <= lenN m ->
  fits rc m = true -> sync rc o id off (m :: q) ->
  exists rs',
    rs_step o (frag_of c id m off n) = (Some rs', if off + n =? lenN m then [m] else [])
    /\ if off + n =? lenN m then rs' = mkR id 0 []
       else r_id rs' = id /\ r_off rs' = off + n /\ lenN (r_buf rs') = lenN m
            /\ takeN (off + n) (r_buf rs') = takeN (off + n) m.
Proof.
  intros Hm Hle Hfit Hs. cbn [sync] in Hs. rewrite Hfit in Hs. cbn [negb] in Hs. rewrite orb_false_r in Hs.
  (* new Message or not, the slice meets a buffer of the right size that holds the Message up to off *)
  assert (Hpre : exists buf, lenN buf = lenN m /\ takeN off buf = takeN off m
                   /\ rs_step o (frag_of c id m off n) =
                      let '(rs', out) := accept (mkR id off buf) (frag_of c id m off n) in (Some rs', out)).
  { destruct (N.eqb_spec off 0) as [->|Hoff].
    - exists (junk (lenN m)). split; [apply lenN_junk|]. split; [reflexivity|].
      apply rs_step_first. now apply idle_head in Hs.
    - destruct Hs as ([rid roff rbuf] & -> & Hrid & Hroff & HL & HP). cbn [r_id r_off r_buf] in *. subst rid roff.
      exists rbuf. split; [exact HL|]. split; [exact HP|].
      unfold rs_step, restart_if_new. cbn [frag_of f_off f_id f_total].
      destruct (N.eqb_spec off 0); [congruence|reflexivity]. }
  destruct Hpre as (buf & HL & HP & ->).
  destruct (accept_slice c id m off n buf HL HP Hle Hm) as (buf' & -> & HL' & HP').
  destruct (off + n =? lenN m); [exists (mkR id 0 [])|exists (mkR id (off + n) buf')]; auto.
Qed.

(* ------------------------------------------------------------------ a whole chain *)

Definition frag_compat (c : scfg) (rc : rcfg) : Prop := sc_magic c = rc_magic rc /\ sex_ok rc (sc_sex c) = true.

Lemma accepted_frag_of rc c id (m : msg) off n fs :
  frag_compat c rc ->
  accepted rc (frag_of c id m off n :: fs) =
    if fits rc m then frag_of c id m off n :: accepted rc fs else accepted rc fs.
Proof.
  intros [Hm Hs]. cbn [accepted frag_of f_magic f_sex f_total].
  rewrite Hm, N.eqb_refl, Hs. reflexivity.
Qed.

(* one slice of the head Message, whether it fits the receiver's limit or not, keeps the receiver in step *)
Lemma sync_slice rc c o id off (m : msg) q n :
  frag_compat c rc -> id < two32 -> N.of_nat (length q) < two32 -> lenN m < two32 ->
  off + n <= lenN m -> (off + n < lenN m -> 0 < n) ->
  sync rc o id off (m :: q) ->
  exists o',
    (forall fs, rs_steps o (accepted rc (frag_of c id m off n :: fs)) =
                let '(o2, out2) := rs_steps o' (accepted rc fs) in
                (o2, (if (off + n =? lenN m) && fits rc m then [m] else []) ++ out2))
    /\ if off + n =? lenN m then sync rc o' (u32 (id + 1)) 0 q else sync rc o' id (off + n) (m :: q).
Proof.
  intros Hc Hid Hlen Hm Hle Hpos Hs.
  destruct (fits rc m) eqn:Hfit.
  - destruct (rs_step_slice rc c o id off m q n Hm Hle Hfit Hs) as (rs' & Hstep & Hrs').
    exists (Some rs'). split.
    { intros fs. rewrite accepted_frag_of, Hfit by exact Hc. cbn [rs_steps]. now rewrite Hstep, andb_true_r. }
    destruct (N.eqb_spec (off + n) (lenN m)) as [E|E].
    + subst rs'. destruct q as [|m1 q1]; [exact I|]. cbn [sync]. rewrite N.eqb_refl. cbn [orb].
      apply (assign_not_in id (m1 :: q1) Hid Hlen).
    + destruct Hrs' as (R1 & R2 & R3 & R4). cbn [sync]. rewrite Hfit. cbn [negb]. rewrite orb_false_r.
      destruct (N.eqb_spec (off + n) 0) as [E0|_]; [lia|]. exists rs'. auto.
  - exists o. split.
    { intros fs. rewrite accepted_frag_of, Hfit, andb_false_r by exact Hc. now destruct (rs_steps o (accepted rc fs)). }
    cbn [sync] in Hs. rewrite Hfit in Hs. cbn [negb] in Hs. rewrite orb_true_r in Hs.
    destruct (off + n =? lenN m).
    + destruct q as [|m1 q1]; [exact I|]. cbn [sync]. rewrite N.eqb_refl. cbn [orb]. exact (idle_tail _ _ _ _ Hs).
    + cbn [sync]. rewrite Hfit. cbn [negb]. now rewrite orb_true_r.
Qed.

Lemma rs_chain rc c id off q fs id' off' q' :
  chain c id off q fs id' off' q' ->
  frag_compat c rc ->
  id < two32 -> N.of_nat (length q) <= two32 -> Forall (fun m => lenN m < two32) q ->
  forall o, sync rc o id off q ->
  exists o' done,
    q = done ++ q'
    /\ rs_steps o (accepted rc fs) = (o', filter (fits rc) done)
    /\ sync rc o' id' off' q'.
Proof.
  intros H Hc. induction H; intros Hid Hlen Hq o Hs.
  - (* ch_nil *) exists o, []. cbn. auto.
  - (* ch_part: a slice that leaves the Message unfinished *)
    inversion Hq as [|? ? Hm Hq0]; subst. cbn [length] in Hlen.
    destruct (sync_slice rc c o id off m q n Hc Hid ltac:(lia) Hm ltac:(lia) ltac:(lia) Hs) as (o1 & Hst1 & Hs1).
    assert (Hne : (off + n =? lenN m) = false) by (apply N.eqb_neq; lia). rewrite Hne in Hst1, Hs1.
    destruct (IHchain Hid Hlen Hq o1 Hs1) as (o' & done & Hd & Hst & Hsy).
    exists o', done. now rewrite Hst1, Hst.
  - (* ch_fin: the slice that completes the Message *)
    inversion Hq as [|? ? Hm Hq0]; subst. cbn [length] in Hlen.
    destruct (sync_slice rc c o id off m q n Hc Hid ltac:(lia) Hm ltac:(lia) ltac:(lia) Hs) as (o1 & Hst1 & Hs1).
    assert (Heq : (off + n =? lenN m) = true) by (apply N.eqb_eq; lia). rewrite Heq in Hst1, Hs1.
    destruct (IHchain (u32_lt _) ltac:(lia) Hq0 o1 Hs1) as (o' & done & Hd & Hst & Hsy).
    exists o', (m :: done). rewrite Hst1, Hst, Hd. cbn [filter andb]. now destruct (fits rc m).
Qed.

(* ------------------------------------------------------------------ packets *)

Lemma accepted_compat rc fs :
  Forall (fun f => (f_magic f =? rc_magic rc) && sex_ok rc (f_sex f) = true) fs ->
  accepted rc fs = filter (fun f => f_total f <=? rc_max_in rc) fs.
Proof.
  induction fs as [|f fs IH]; intros H; [reflexivity|].
  inversion H as [|? ? Hf Hfs]; subst. cbn [accepted filter]. rewrite Hf, IH by assumption. reflexivity.
Qed.

Lemma accepted_app_compat rc fs1 fs2 :
  Forall (fun f => (f_magic f =? rc_magic rc) && sex_ok rc (f_sex f) = true) fs1 ->
  accepted rc (fs1 ++ fs2) = accepted rc fs1 ++ accepted rc fs2.
Proof.
  induction fs1 as [|f fs1 IH]; intros H; [reflexivity|].
  inversion H as [|? ? Hf Hfs]; subst. cbn [accepted app]. rewrite Hf, IH by assumption.
  destruct (f_total f <=? rc_max_in rc); reflexivity.
Qed.

Lemma first_word_enc_frags magic f fs :
  f_magic f = magic -> magic < two32 -> first_word_is magic (enc_frags (f :: fs)) = true.
Proof.
  intros Hm Hlt. unfold first_word_is. rewrite enc_frags_cons. unfold enc_frag. rewrite <- !app_assoc.
  rewrite rd32_le32, Hm, u32_small by assumption. apply N.eqb_refl.
Qed.

(* the receiver fed one packet that is the encoding of fs, from source a *)
Lemma recv_packet_enc rc t a fs :
  Forall wire_ok fs -> lenN (enc_frags fs) <= rc_mtu rc ->
  Forall (fun f => (f_magic f =? rc_magic rc) && sex_ok rc (f_sex f) = true) fs ->
  recv_packet rc t a (enc_frags fs) = let '(t', out) := recv_frags t a (accepted rc fs) in (t', map (pair a) out).
Proof.
  intros Hw Hlen Hc.
  destruct fs as [|f fs]; [unfold recv_packet, takeN; now rewrite firstn_nil|].
  assert (Hfr : frags_of rc (enc_frags (f :: fs)) = accepted rc (f :: fs)).
  { unfold frags_of. rewrite takeN_all by exact Hlen. apply parse_enc; [exact Hw|apply length_enc_frags]. }
  destruct (recv_packet_cases rc a (enc_frags (f :: fs))) as [(_ & _ & Hm) | E]; [exfalso|now rewrite E, Hfr].
  (* not a misc datagram: long enough, and it starts with the magic *)
  rewrite takeN_all in Hm by exact Hlen. destruct Hm as [Hm|Hm].
  - rewrite enc_frags_cons, lenN_app, lenN_enc_frag in Hm. lia.
  - inversion Hc as [|? ? Hf _]; inversion Hw as [|? ? Hwf _]; subst.
    apply andb_prop in Hf as [Hf _]. apply N.eqb_eq in Hf.
    rewrite first_word_enc_frags in Hm; [discriminate|exact Hf|rewrite <- Hf; apply Hwf].
Qed.

(* ... and a sequence of them: one pass of the fragments over the source's entry *)
Lemma recv_all_enc rc a fss : forall t,
  Forall (fun fs => Forall wire_ok fs /\ lenN (enc_frags fs) <= rc_mtu rc
                    /\ Forall (fun f => (f_magic f =? rc_magic rc) && sex_ok rc (f_sex f) = true) fs) fss ->
  recv_all rc t (map (pair a) (map enc_frags fss)) =
    let '(t', out) := recv_frags t a (accepted rc (concat fss)) in (t', map (pair a) out).
Proof.
  induction fss as [|fs fss IH]; intros t Hall; [reflexivity|].
  inversion Hall as [|? ? (Hw & Hlen & Hc) Hrest]; subst. cbn [map recv_all concat].
  rewrite recv_packet_enc, accepted_app_compat by assumption.
  rewrite (run_app (fun t f => recv_frag t a f) (fun t fs => recv_frags t a fs) (fun _ => eq_refl) (fun _ _ _ => eq_refl)).
  destruct (recv_frags t a (accepted rc fs)) as [t1 o1]. rewrite IH by exact Hrest.
  destruct (recv_frags t1 a (accepted rc (concat fss))) as [t2 o2]. now rewrite map_app.
Qed.
