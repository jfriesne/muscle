(* C06 -- property theorems only: each is closed by [exact] of a lemma proved elsewhere. *)
From Coq Require Import List NArith ZArith Bool.
From Muscle Require Import Gen.Consts Refl.Base Refl.BaseProofs Refl.Tree Refl.Matcher Refl.Session Refl.Server Refl.ServerProofs
     Refl.IsoModel Refl.IsoBase Refl.IsoFrame Refl.IsoProofs Refl.IsoTold Refl.IsoDetach Refl.IsoRun Refl.IsoClean
     Refl.IsoSimBase Refl.IsoSim Refl.IsoHosts Refl.IsoNever Refl.IsoKick Refl.IsoAsIf Refl.IsoCut Refl.IsoOrd Refl.IsoOrdProofs Refl.IsoOrdSim Refl.IsoHonest Refl.IsoQuiet Refl.IsoExamples.
Import ListNotations.

(* A client cannot give itself privileges. *)
Theorem C06_setpriv_ignored : forall (M : MatchOps) fx nest xs s bits, xhandle fx nest xs s (XSetPriv bits) = xs.
Proof. exact @setpriv_ignored. Qed.
Print Assumptions C06_setpriv_ignored.

(* the translated what-codes / privilege bits the dispatcher model branches on are pairwise distinct and in range *)
Theorem C06_dispatch_codes_ok :
  NoDup [c_PR_COMMAND_KICK; c_PR_COMMAND_ADDBANS; c_PR_COMMAND_ADDREQUIRES; c_PR_COMMAND_REMOVEBANS; c_PR_COMMAND_REMOVEREQUIRES;
         c_PR_COMMAND_PING; c_PR_COMMAND_GETPARAMETERS; c_PR_COMMAND_GETDATATREES; c_PR_COMMAND_SETDATATREES; c_PR_COMMAND_NOOP;
         c_PR_COMMAND_JETTISONRESULTS; c_PR_COMMAND_JETTISONDATATREES; c_PR_COMMAND_SETPARAMETERS; c_PR_COMMAND_REMOVEPARAMETERS;
         c_PR_COMMAND_SETDATA; c_PR_COMMAND_REMOVEDATA; c_PR_COMMAND_GETDATA; c_PR_COMMAND_BATCH; c_PR_COMMAND_INSERTORDEREDDATA;
         c_PR_COMMAND_REORDERDATA] /\
  forallb in_command_range
        [c_PR_COMMAND_KICK; c_PR_COMMAND_ADDBANS; c_PR_COMMAND_ADDREQUIRES; c_PR_COMMAND_REMOVEBANS; c_PR_COMMAND_REMOVEREQUIRES;
         c_PR_COMMAND_PING; c_PR_COMMAND_GETPARAMETERS; c_PR_COMMAND_GETDATATREES; c_PR_COMMAND_SETDATATREES; c_PR_COMMAND_NOOP;
         c_PR_COMMAND_JETTISONRESULTS; c_PR_COMMAND_JETTISONDATATREES; c_PR_COMMAND_SETPARAMETERS; c_PR_COMMAND_REMOVEPARAMETERS;
         c_PR_COMMAND_SETDATA; c_PR_COMMAND_REMOVEDATA; c_PR_COMMAND_GETDATA; c_PR_COMMAND_BATCH; c_PR_COMMAND_INSERTORDEREDDATA;
         c_PR_COMMAND_REORDERDATA] = true /\
  NoDup [c_PR_PRIVILEGE_KICK; c_PR_PRIVILEGE_ADDBANS; c_PR_PRIVILEGE_REMOVEBANS] /\
  forallb (fun b => N.ltb b c_PR_NUM_PRIVILEGES) [c_PR_PRIVILEGE_KICK; c_PR_PRIVILEGE_ADDBANS; c_PR_PRIVILEGE_REMOVEBANS] = true /\
  N.ltb c_PR_RESULT_ERRORACCESSDENIED c_BEGIN_PR_COMMANDS || N.ltb c_END_PR_COMMANDS c_PR_RESULT_ERRORACCESSDENIED = true.
Proof. exact dispatch_codes_ok. Qed.
Print Assumptions C06_dispatch_codes_ok.

(* FRAME.  For every state xs (reachable or not), every session s that holds no privilege, and every list of commands cs
   -- any what-code, absolute paths, '..', wildcards, forged privilege bits and session fields, batches -- after the server
   has taken the turns for all of them:
     * the nodes outside s's directory are the same list (paths, payloads, order = child iteration order), with the same
       subscriber tables up to s's own mark,
     * every other session has the same identity, subscriptions and update limit, and is still attached,
     * every other session has the same privilege bits, s still has none, and nobody is marked for removal.
   It holds for the code as found and for every combination of the repairs (fx). *)
Theorem C06_frame_own_subtree : forall (M : MatchOps) (fx : fixes) cs xs s ss,
  get_session (xs_sv xs) s = Some ss -> unprivileged xs s -> xs_ducks xs = [] ->
  let xs' := xrun fx (map (XCmd s) cs) xs in
  foreign_view s (session_dir ss) (sv_tree (xs_sv xs')) = foreign_view s (session_dir ss) (sv_tree (xs_sv xs)) /\
  others_params s (xs_sv xs') = others_params s (xs_sv xs) /\
  idents (xs_sv xs') = idents (xs_sv xs) /\
  priv_remove (xs_priv xs') s = priv_remove (xs_priv xs) s /\
  unprivileged xs' s /\ xs_ducks xs' = [].
Proof. exact @frame_own_subtree. Qed.
Print Assumptions C06_frame_own_subtree.

(* the handler alone, at any batch nesting depth, in any state *)
Theorem C06_xhandle_xframe : forall (M : MatchOps) (fx : fixes) c nest xs s ss,
  get_session (xs_sv xs) s = Some ss -> xframe s (session_dir ss) xs (xhandle fx nest xs s c).
Proof. exact @xhandle_xframe. Qed.
Print Assumptions C06_xhandle_xframe.

(* between two turns nobody is marked for removal: the premise [xs_ducks xs = []] holds in every reachable state *)
Theorem C06_no_ducks_between_turns : forall (M : MatchOps) (fx : fixes) evs, xs_ducks (xrun fx evs empty_xserver) = [].
Proof. intros M fx evs. now apply xrun_no_ducks. Qed.
Print Assumptions C06_no_ducks_between_turns.

(* non-vacuity: a reachable state with an unprivileged session, foreign nodes carrying its marks, and a privileged neighbour *)
Example C06_frame_premises_satisfiable :
  let xs := ex_state as_found in
  exists ss, get_session (xs_sv xs) 10%N = Some ss /\ unprivileged xs 10%N /\ xs_ducks xs = [] /\
             length (foreign_view 10%N (session_dir ss) (sv_tree (xs_sv xs))) = 6 /\ has_priv xs 12%N 0%N = true.
Proof. cbv zeta. eexists. split; [vm_compute; reflexivity|]. vm_compute. repeat split. Qed.

(* DETACH CLEAN.  For every history evs (arrivals under fresh (host, id) pairs, departures, commands of any kind from any number
   of sessions; fewer than 2^31-1 subscription strings added in total) and every session s attached at its end: when s's
   connection ends there -- with C03's "only complete Messages are dispatched" that covers a cut after any byte prefix --
   the resulting state satisfies [left_clean] (Refl/IsoClean.v): subtree gone, host node there iff another session uses the host,
   no subscriber table mentions s, s is no session any more and holds no privilege entry, all others keep identity /
   subscriptions / limits / privileges, every other node is kept and untouched up to s's mark, and every session owed a
   notice for a node of the subtree has been sent its removal.
   Premises: the laws of the external matching code (MatchLaws, C15) and the F12 repair (fx_guard, in /repo since 63c5c82). *)
Theorem C06_detach_clean : forall (M : MatchOps) (L : MatchLaws M) (fx : fixes), fx_guard fx = true ->
  forall evs s ss,
  small (xrun_budget evs) -> xwf_run fx empty_xserver evs ->
  let xs := xrun fx evs empty_xserver in
  get_session (xs_sv xs) s = Some ss ->
  left_clean xs s ss (xstep fx xs (XDetach s)).
Proof. exact @detach_clean. Qed.
Print Assumptions C06_detach_clean.

(* the same in any state that satisfies the server invariant (C04's [inv]), reachable or not *)
Theorem C06_xdetach_clean : forall (M : MatchOps) (L : MatchLaws M) (fx : fixes), fx_guard fx = true ->
  forall B xs s ss, small B -> inv B (xs_sv xs) -> xs_ducks xs = [] ->
  get_session (xs_sv xs) s = Some ss -> left_clean xs s ss (xdetach fx xs s).
Proof. exact @xdetach_clean. Qed.
Print Assumptions C06_xdetach_clean.

(* the server invariant holds after every history of the dispatcher model *)
Theorem C06_reachable_inv : forall (M : MatchOps) (L : MatchLaws M) (fx : fixes), fx_guard fx = true ->
  forall evs, small (xrun_budget evs) -> xwf_run fx empty_xserver evs ->
  inv (xrun_budget evs) (xs_sv (xrun fx evs empty_xserver)).
Proof. exact @reachable_inv. Qed.
Print Assumptions C06_reachable_inv.

(* non-vacuity: the example history is well-formed and small; session 11 is attached at its end and owns a node that
   session 10 is owed a removal notice for *)
Example C06_detach_premises_satisfiable :
  small (xrun_budget ex_history) /\ xwf_run all_fixed empty_xserver ex_history /\
  exists ss n st, get_session (xs_sv (ex_state all_fixed)) 11%N = Some ss /\
                  In n (sv_tree (xs_sv (ex_state all_fixed))) /\ is_prefix (session_dir ss) (n_path n) = true /\
                  get_session (xs_sv (ex_state all_fixed)) 10%N = Some st /\ owed st n.
Proof.
  split; [vm_compute; reflexivity|]. split.
  - vm_compute. repeat split; intros ss Hin; repeat (destruct Hin as [<-|Hin]; [discriminate|]); destruct Hin.
  - do 3 eexists. split; [vm_compute; reflexivity|]. split; [vm_compute; do 4 right; left; reflexivity|].
    split; [vm_compute; reflexivity|]. split; [vm_compute; reflexivity|]. vm_compute. split; [left; reflexivity|discriminate].
Qed.

(* AS IF NEVER.  For every session id s and every history evs in which s is never granted PR_PRIVILEGE_KICK -- OTHER sessions
   may hold it, and may kick anybody, s included, alone or inside batches -- (arrivals under fresh (host, id) pairs and fresh
   names, see xnm_event; fewer than 2^31-1 subscription strings added): let s's connection end after evs, and compare with
   the run of the history from which everything s did -- arriving, every command, leaving -- has been erased.  Below host
   level the two trees are the same list of nodes (paths, payloads, order = child iteration order, subscriber tables); the
   sessions are the same in the same order with the same identity, subscriptions and update limits; the privilege tables are
   the same; nobody is marked for removal.  What the other sessions were SENT meanwhile is not compared ("up to outputs
   already delivered").
   The kick traversal is the one of NodePathMatcher::DoTraversal with a callback that returns NODE_DEPTH_SESSIONNAME (Refl/
   TraverseExit.v); the two runs may visit the host nodes, and so mark the sessions, in a different order: removals of
   different sessions commute on everything compared here (Refl/IsoKick.v).  Host nodes: next theorem. *)
Theorem C06_as_if_never : forall (M : MatchOps) (L : MatchLaws M) (fx : fixes), fx_guard fx = true ->
  forall (s : sid) evs,
  small (xrun_budget evs) -> xwf_run fx empty_xserver evs -> xnm_run fx empty_xserver evs -> Forall (ev_nokick s) evs ->
  let XF := xstep fx (xrun fx evs empty_xserver) (XDetach s) in
  let XE := xrun fx (erase s evs) empty_xserver in
  body (sv_tree (xs_sv XF)) = body (sv_tree (xs_sv XE)) /\
  all_params (xs_sv XF) = all_params (xs_sv XE) /\
  xs_priv XF = xs_priv XE /\ xs_ducks XF = [] /\ xs_ducks XE = [].
Proof. exact @as_if_never. Qed.
Print Assumptions C06_as_if_never.

(* ... and the host nodes: the same hosts exist, with the same payload and the same subscriber count for every session *)
Theorem C06_as_if_never_hosts : forall (M : MatchOps) (L : MatchLaws M) (fx : fixes), fx_guard fx = true ->
  forall (s : sid) evs,
  small (xrun_budget evs) -> xwf_run fx empty_xserver evs -> xnm_run fx empty_xserver evs -> Forall (ev_nokick s) evs ->
  let XF := xstep fx (xrun fx evs empty_xserver) (XDetach s) in
  let XE := xrun fx (erase s evs) empty_xserver in
  forall h,
  match find_node (sv_tree (xs_sv XF)) [h], find_node (sv_tree (xs_sv XE)) [h] with
  | Some a, Some b => n_data a = n_data b /\ forall k, tbl_get (n_subs a) k = tbl_get (n_subs b) k
  | None, None => True
  | _, _ => False
  end.
Proof. exact @as_if_never_hosts. Qed.
Print Assumptions C06_as_if_never_hosts.

(* in every reachable state a host node exists iff a session lives on that host (and it carries the empty Message) *)
Theorem C06_reachable_hosts_ok : forall (M : MatchOps) (L : MatchLaws M) (fx : fixes), fx_guard fx = true ->
  forall evs xs B, small (B + xrun_budget evs) -> inv B (xs_sv xs) -> hosts_ok (xs_sv xs) ->
  xwf_run fx xs evs -> hosts_ok (xs_sv (xrun fx evs xs)).
Proof. exact @reachable_hosts_ok. Qed.
Print Assumptions C06_reachable_hosts_ok.

(* non-vacuity: a history in which session 11 really did something (three nodes, a refused kick, a refused write into 10's
   subtree), the others subscribed to its nodes, and session 12, which holds PR_PRIVILEGE_KICK, kicks 11 and later 10;
   erasing 11 leaves a different history, and both runs end with session 12 alone *)
Example C06_as_if_never_premises_satisfiable :
  small (xrun_budget ex_history3) /\ xwf_run all_fixed empty_xserver ex_history3 /\ xnm_run all_fixed empty_xserver ex_history3 /\
  Forall (ev_nokick 11%N) ex_history3 /\
  has_priv (xrun all_fixed ex_history3 empty_xserver) 12%N c_PR_PRIVILEGE_KICK = true /\
  length (erase 11%N ex_history3) = 5 /\
  length (sv_sessions (xs_sv (xrun all_fixed (firstn 5 ex_history3) empty_xserver))) = 3 /\
  length (sv_sessions (xs_sv (xrun all_fixed (firstn 6 ex_history3) empty_xserver))) = 2 /\
  length (sv_sessions (xs_sv (xrun all_fixed ex_history3 empty_xserver))) = 1 /\
  length (sv_sessions (xs_sv (xrun all_fixed (erase 11%N ex_history3) empty_xserver))) = 1.
Proof.
  split; [vm_compute; reflexivity|]. split; [|split].
  - vm_compute. repeat split; intros ss Hin; repeat (destruct Hin as [<-|Hin]; [discriminate|]); destruct Hin.
  - vm_compute. repeat split; try discriminate;
      repeat (match goal with H : _ \/ _ |- _ => destruct H as [<-|H] | H : False |- _ => destruct H end); discriminate.
  - split; [repeat (constructor; [cbn; intros; first [exact I|discriminate|reflexivity]|]); constructor|]. vm_compute. repeat split; reflexivity.
Qed.

(* BYTE-LEVEL CUT (composition with C03, Gw/FrameDefault.v d_prefix_safety).  The client queues any Messages on its standard
   binary gateway; DoOutput / DoInput calls with any maxBytes, any Write / Read results (zero- and one-byte ones included)
   in any interleaving move the bytes; the server-side session hands every delivered Message (read by ANY function decode;
   parsing is C01/C02's subject) to the dispatcher, interleaved with everything else the server does in ANY way (weave).
   Whenever the connection ends -- after any byte of the stream -- the server is in the state it would be in had the client
   sent exactly its first j Messages, for some j, and then closed the connection: a cut at a byte is a cut between two
   complete commands, and detach_clean / as_if_never apply to it. *)
Theorem C06_byte_cut_is_command_cut : forall (M : MatchOps) (fx : fixes) (decode : GwBase.bytes -> xcmd) (weave : list xevent -> list xevent)
  s xs0 max_in (evs : list (GwBase.event GwBase.bytes)),
  Forall (TransportProofs.ev_wf (FrameDefault.d_wfb max_in)) evs ->
  exists j, j <= length (GwBase.ev_msgs evs) /\
            cut_state fx decode weave s xs0 max_in evs =
            xstep fx (xrun fx (weave (cmds_of decode s (firstn j (GwBase.ev_msgs evs)))) xs0) (XDetach s).
Proof. exact @byte_cut_is_command_cut. Qed.
Print Assumptions C06_byte_cut_is_command_cut.

(* ... so the state after a cut at any byte is clean of s, for histories whose every command prefix is well-formed *)
Theorem C06_byte_cut_clean : forall (M : MatchOps) (L : MatchLaws M) (fx : fixes), fx_guard fx = true ->
  forall (decode : GwBase.bytes -> xcmd) (weave : list xevent -> list xevent) s max_in (evs : list (GwBase.event GwBase.bytes)),
  Forall (TransportProofs.ev_wf (FrameDefault.d_wfb max_in)) evs ->
  (forall j, small (xrun_budget (weave (cmds_of decode s (firstn j (GwBase.ev_msgs evs))))) /\
             xwf_run fx empty_xserver (weave (cmds_of decode s (firstn j (GwBase.ev_msgs evs))))) ->
  exists j, j <= length (GwBase.ev_msgs evs) /\
    let before := xrun fx (weave (cmds_of decode s (firstn j (GwBase.ev_msgs evs)))) empty_xserver in
    forall ss, get_session (xs_sv before) s = Some ss ->
    left_clean before s ss (cut_state fx decode weave s empty_xserver max_in evs).
Proof. exact @byte_cut_clean. Qed.
Print Assumptions C06_byte_cut_clean.

(* non-vacuity: a run in which the connection can end in the middle of a Message: two Messages queued, the first delivered
   whole, 5 of the second one's 10 bytes (8 header + 2 body) in the receiver's buffer; a cut now is the cut after one command *)
Example C06_byte_cut_premises_satisfiable :
  let evs : list (GwBase.event GwBase.bytes) :=
    [GwBase.EQueue [7%N; 7%N]; GwBase.EQueue [8%N; 8%N]; GwBase.EOut 100%N [10%N; 5%N]; GwBase.EIn 100%N [100%N; 100%N; 100%N; 100%N]] in
  Forall (TransportProofs.ev_wf (FrameDefault.d_wfb 1000%N)) evs /\
  GwBase.ev_msgs evs = [[7%N; 7%N]; [8%N; 8%N]] /\
  GwBase.s_dlv (GwBase.sys_run FrameModel.fs_queue FrameModel.d_do_output (FrameModel.d_do_input 1000%N) (FrameDefault.d_sys0) evs) = [[7%N; 7%N]] /\
  FrameModel.fr_buf (GwBase.s_rcv (GwBase.sys_run FrameModel.fs_queue FrameModel.d_do_output (FrameModel.d_do_input 1000%N) (FrameDefault.d_sys0) evs))
    = Some (2048%N, [2%N; 0%N; 0%N; 0%N; 48%N]).
Proof.
  cbv zeta. split; [|split; [|split]; vm_compute; reflexivity].
  repeat constructor; vm_compute; intros H; discriminate H.
Qed.

(* ORDERED CHILDREN (model: Refl/IsoOrd.v -- PR_COMMAND_INSERTORDEREDDATA with one key, PR_COMMAND_REORDERDATA, the ordered
   index and the name counter of every node, index entries and counters going with removed nodes).
   FRAME: whatever command s sends -- INSERTORDEREDDATA, REORDERDATA, anything of the dispatcher model, alone or in batches,
   with any keys, wildcards and absolute paths -- the frame of C06_xhandle_xframe holds for tree, sessions and privileges,
   and the ordered index and the name counter of every node outside s's subtree are what they were ([ok]: indices and
   counters belong to existing nodes at session level or below -- true in every reachable state, last theorem). *)
Theorem C06_ord_frame : forall (M : MatchOps) (fx : fixes) (iname : N -> name) c nest (os : oserver) s ss,
  get_session (xs_sv (o_x os)) s = Some ss -> ok os ->
  let os' := ohandle fx iname nest os s c in
  xframe s (session_dir ss) (o_x os) (o_x os') /\
  idx_out (session_dir ss) (o_idx os') = idx_out (session_dir ss) (o_idx os) /\
  ctr_out (session_dir ss) (o_ctr os') = ctr_out (session_dir ss) (o_ctr os) /\ ok os'.
Proof. exact @ohandle_frame. Qed.
Print Assumptions C06_ord_frame.

(* the same for a whole turn of the server (handler, update push, removal of kicked sessions, pruning) of an unprivileged s *)
Theorem C06_ord_turn_frame : forall (M : MatchOps) (fx : fixes) (iname : N -> name) (os : oserver) s c ss,
  get_session (xs_sv (o_x os)) s = Some ss -> ok os -> unprivileged (o_x os) s -> xs_ducks (o_x os) = [] ->
  let os' := ostep fx iname os (OCmd s c) in
  xframe s (session_dir ss) (o_x os) (o_x os') /\
  idx_out (session_dir ss) (o_idx os') = idx_out (session_dir ss) (o_idx os) /\
  ctr_out (session_dir ss) (o_ctr os') = ctr_out (session_dir ss) (o_ctr os) /\ ok os'.
Proof. exact @ostep_frame. Qed.
Print Assumptions C06_ord_turn_frame.

(* DETACH with ordered children: the dispatcher part is left clean as in C06_xdetach_clean, no ordered index and no name
   counter at or below s's directory is left (a later session or node of the same name starts from "I0" with an empty index),
   and the indices and counters of all nodes outside it are what they were *)
Theorem C06_ord_detach_clean : forall (M : MatchOps) (L : MatchLaws M) (fx : fixes), fx_guard fx = true ->
  forall (iname : N -> name) B (os : oserver) s ss, small B -> inv B (xs_sv (o_x os)) -> xs_ducks (o_x os) = [] ->
  get_session (xs_sv (o_x os)) s = Some ss -> ok os ->
  let os' := ostep fx iname os (ODetach s) in
  left_clean (o_x os) s ss (o_x os') /\
  (forall e, In e (o_idx os') -> is_prefix (session_dir ss) (fst e) = false) /\
  (forall e, In e (o_ctr os') -> is_prefix (session_dir ss) (fst e) = false) /\
  idx_out (session_dir ss) (o_idx os') = idx_out (session_dir ss) (o_idx os) /\
  ctr_out (session_dir ss) (o_ctr os') = ctr_out (session_dir ss) (o_ctr os) /\ ok os'.
Proof. exact @odetach_clean. Qed.
Print Assumptions C06_ord_detach_clean.

Theorem C06_ord_reachable_ok : forall (M : MatchOps) (fx : fixes) (iname : N -> name) evs (os : oserver),
  ok os -> ok (orun fx iname evs os).
Proof. exact @orun_ok. Qed.
Print Assumptions C06_ord_reachable_ok.

(* non-vacuity: in the example history session 11 builds an index [I2; I1; I0] under its node 7 (inserts before a given
   entry, a reorder), session 10's INSERTORDEREDDATA / REORDERDATA aimed at that node -- absolute paths, wildcards, in a
   batch -- change nothing, a removed child leaves the index, and 11's departure takes index and counter along *)
Example C06_ord_premises_satisfiable :
  ok (@empty_oserver ExOps) /\
  o_idx (orun all_fixed ex_iname (firstn 6 ex_ohistory) empty_oserver) = [([1%N; 11%N; 7%N], [1001%N; 1000%N])] /\
  o_idx (orun all_fixed ex_iname (firstn 7 ex_ohistory) empty_oserver) = [([1%N; 11%N; 7%N], [1001%N; 1000%N])] /\
  o_idx (orun all_fixed ex_iname (firstn 8 ex_ohistory) empty_oserver) = [([1%N; 11%N; 7%N], [1002%N; 1001%N; 1000%N])] /\
  o_idx (orun all_fixed ex_iname ex_ohistory empty_oserver) = [([1%N; 11%N; 7%N], [1002%N; 1001%N])] /\
  o_ctr (orun all_fixed ex_iname ex_ohistory empty_oserver) = [([1%N; 11%N; 7%N], 3%N)] /\
  o_idx (ostep all_fixed ex_iname (orun all_fixed ex_iname ex_ohistory empty_oserver) (ODetach 11%N)) = [] /\
  o_ctr (ostep all_fixed ex_iname (orun all_fixed ex_iname ex_ohistory empty_oserver) (ODetach 11%N)) = [].
Proof. split; [apply ok_empty|]. vm_compute. repeat split; reflexivity. Qed.

(* SETDATA with PR_NAME_FLAGS = QUIET|ADDTOINDEX: the quietly created, indexed child carries the mark of the session that was
   subscribed before it existed (so its later updates, its removal and its owner's departure are told), it is in its parent's
   index, and the existing node named in the same command keeps its data *)
Example C06_ord_quiet_indexed_child_is_marked :
  let os := orun all_fixed ex_iname ex_ohistory3 (@empty_oserver ExOps) in
  option_map n_subs (find_node (sv_tree (xs_sv (o_x os))) [1%N; 11%N; 7%N; 8%N]) = Some [(10%N, 1%N)] /\
  o_idx os = [([1%N; 11%N; 7%N], [8%N])] /\
  option_map n_data (find_node (sv_tree (xs_sv (o_x os))) [1%N; 11%N; 7%N]) = Some 5%N.
Proof. vm_compute. repeat split; reflexivity. Qed.

(* AS IF NEVER with ordered children: premises as for C06_as_if_never, on histories of the model of Refl/IsoOrd.v.  After s's
   connection has ended, trees (below host level), sessions and privileges agree with the run from which everything s did has
   been erased, and so do the ordered indices and the name counters of ALL nodes: the others' INSERTORDEREDDATA commands
   generated the same child names and built the same indices, whatever s inserted, reordered or removed, in its own subtree
   or aimed at theirs, and whether s left by itself or was kicked. *)
Theorem C06_ord_as_if_never : forall (M : MatchOps) (L : MatchLaws M) (fx : fixes), fx_guard fx = true ->
  forall (iname : N -> name) (s : sid) evs,
  small (orun_budget evs) -> owf_run fx iname empty_oserver evs -> onm_run fx iname empty_oserver evs -> Forall (oev_nokick s) evs ->
  let OF := ostep fx iname (orun fx iname evs empty_oserver) (ODetach s) in
  let OE := orun fx iname (oerase s evs) empty_oserver in
  body (sv_tree (xs_sv (o_x OF))) = body (sv_tree (xs_sv (o_x OE))) /\
  all_params (xs_sv (o_x OF)) = all_params (xs_sv (o_x OE)) /\
  xs_priv (o_x OF) = xs_priv (o_x OE) /\
  o_idx OF = o_idx OE /\ o_ctr OF = o_ctr OE.
Proof. exact @o_as_if_never. Qed.
Print Assumptions C06_ord_as_if_never.

(* non-vacuity: the second example history -- 10 builds an index under its own node while 11 builds one under its node and
   aims inserts and reorders at 10's -- satisfies the premises for s = 11; erasing 11 leaves a shorter history; 10's index
   and counter are there at the end of both runs *)
Example C06_ord_as_if_never_premises_satisfiable :
  small (orun_budget ex_ohistory2) /\ owf_run all_fixed ex_iname empty_oserver ex_ohistory2 /\
  onm_run all_fixed ex_iname empty_oserver ex_ohistory2 /\ Forall (oev_nokick 11%N) ex_ohistory2 /\
  length ex_ohistory2 = 9 /\ length (oerase 11%N ex_ohistory2) = 3 /\
  o_idx (orun all_fixed ex_iname ex_ohistory2 empty_oserver) = [([1%N; 10%N; 7%N], [1001%N; 1000%N]); ([1%N; 11%N; 7%N], [1000%N])] /\
  o_idx (orun all_fixed ex_iname (oerase 11%N ex_ohistory2) empty_oserver) = [([1%N; 10%N; 7%N], [1001%N; 1000%N])].
Proof.
  split; [vm_compute; reflexivity|]. split; [|split].
  - vm_compute. repeat split; intros ss Hin; repeat (destruct Hin as [<-|Hin]; [discriminate|]); destruct Hin.
  - vm_compute. repeat split; try discriminate;
      repeat (match goal with H : _ \/ _ |- _ => destruct H as [<-|H] | H : False |- _ => destruct H end); discriminate.
  - split; [repeat (constructor; [cbn; intros; first [exact I|discriminate|reflexivity]|]); constructor|]. vm_compute. repeat split; reflexivity.
Qed.

(* FORGED SESSION FIELDS.  Whatever what-code, keys and PR_NAME_SESSION string a session puts into a Message, in any state:
   everything the dispatcher adds to the outgoing log is either a bounce / reply to the sender itself, or a copy for SOMEBODY
   ELSE that names the true sender and carries the sender's own session name in PR_NAME_SESSION (if the field was present). *)
Theorem C06_session_field_true : forall (M : MatchOps) (fx : fixes) xs ss what keys sess,
  exists added, xs_log (dispatch fx xs ss what keys sess) = xs_log xs ++ added /\ Forall (honest ss what sess) added.
Proof. exact @dispatch_honest. Qed.
Print Assumptions C06_session_field_true.

(* NO SPOOFED NEWS.  In any state, after a whole turn of the server for any command of an unprivileged session s: whatever
   another session t holds in PR_RESULT_DATAITEMS Messages (handed to its gateway or still pending) either was there before
   the command or names a node at or below s's own directory -- s cannot make the server announce, change or retract, in
   anybody's eyes, a node that is not its own. *)
Theorem C06_quiet_step : forall (M : MatchOps) (fx : fixes) xs s c ss t,
  get_session (xs_sv xs) s = Some ss -> s <> t -> unprivileged xs s -> xs_ducks xs = [] ->
  only_about (session_dir ss) t (xs_sv xs) (xs_sv (xstep fx xs (XCmd s c))).
Proof. exact @quiet_step. Qed.
Print Assumptions C06_quiet_step.

(* non-vacuity: in the example state session 10 (unprivileged) is attached next to 11, which holds a Message naming a node *)
Example C06_quiet_premises_satisfiable :
  let xs := ex_state as_found in
  exists ss, get_session (xs_sv xs) 11%N = Some ss /\ unprivileged xs 11%N /\ xs_ducks xs = [] /\ 11%N <> 10%N /\
             mentions (xs_sv xs) 10%N <> [].
Proof. vm_compute. eexists. repeat split; try reflexivity; discriminate. Qed.
