(* Refl/PatInst.v -- the concrete instance of the external matching code (class MatchOps of Refl/Base.v) that the C05
   correspondence run uses, defined in Coq over the StringMatcher model of C15 (Pat/Translate.v, Pat/Ere.v) and the
   lookup-key parsing of Refl/ClauseKeys.v, and the proof that it satisfies the clause laws the traversal theorems
   assume (from C15's laws: a unique pattern matches exactly RemoveEscapeChars(pattern), a list-of-unique-values pattern
   matches exactly its values).  This discharges the premise "ckeys_sound / ckeys_complete" for the repaired key parsing;
   for the parsing as found it is refuted (finding F52).

   Names of the tree model are numbers; [tbl] gives the string of a name, [untbl] the name of a string (the correspondence
   driver's intern table).  The laws hold of the names that are the canonical number of a non-empty string. *)
From Coq Require Import List ZArith Bool.
From Muscle Require Import Gen.Consts Pat.Ere Pat.Simple Pat.Translate Pat.UvProofs Pat.PatProofs Refl.Base Refl.BaseProofs Refl.ClauseKeys.
Import ListNotations.
Local Open Scope N_scope.

(* RemoveEscapeChars as a left-to-right automaton *)

(* (characters put out so far, an escape is pending) *)
Definition ustep (st : list N * bool) (c : N) : list N * bool :=
  if snd st then (fst st ++ [c], false)
  else if c =? ch_bsl then (fst st, true)
  else (fst st ++ [c], false).

Definition utrail (pend : bool) : list N := if pend && (c_une_keeps_trailing =? 1) then [ch_bsl] else [].

Lemma unescape_aux_fold : forall raw out f,
  out ++ unescape_aux raw f = fst (fold_left ustep raw (out, f)) ++ utrail (snd (fold_left ustep raw (out, f))).
Proof.
  induction raw as [|c raw IH]; intros out f; [reflexivity|].
  cbn [unescape_aux fold_left]. destruct f.
  - unfold ustep. cbn [fst snd orb]. rewrite andb_false_r. rewrite (app_assoc out [c]). apply IH.
  - unfold ustep. cbn [fst snd orb negb]. destruct (c =? ch_bsl) eqn:E; cbn [negb andb].
    + cbn [app]. apply IH.
    + rewrite (app_assoc out [c]). apply IH.
Qed.

Lemma unescape_fold : forall raw,
  unescape raw = fst (fold_left ustep raw ([], false)) ++ utrail (snd (fold_left ustep raw ([], false))).
Proof. intros raw. unfold unescape. exact (unescape_aux_fold raw [] false). Qed.

Lemma tbl_keeps_trailing : c_une_keeps_trailing = 1.
Proof. reflexivity. Qed.

(* with the second repair (empty items kept) the keys are ALL the values of the list pattern, the empty one included *)
Lemma uv_loop_all_segs_gen : forall p prevEsc scratch cur,
  fold_left ustep (rev scratch) ([], false) = (cur, prevEsc) ->
  map unescape (uv_loop_all p prevEsc scratch) = uv_segs p prevEsc cur.
Proof.
  induction p as [|c p IH]; intros prevEsc scratch cur Hst.
  - cbn [uv_loop_all uv_segs map]. rewrite unescape_fold, Hst. cbn [fst snd]. unfold utrail. rewrite tbl_keeps_trailing.
    cbn [N.eqb Pos.eqb]. destruct prevEsc; cbn [andb]; [reflexivity | now rewrite app_nil_r].
  - cbn [uv_loop_all uv_segs].
    assert (Step : forall st', ustep (cur, prevEsc) c = st' -> fold_left ustep (rev (c :: scratch)) ([], false) = st').
    { intros st' E. cbn [rev]. rewrite fold_left_app, Hst. cbn [fold_left]. exact E. }
    destruct prevEsc.
    + rewrite andb_false_r. cbn [orb]. apply IH. apply Step. reflexivity.
    + rewrite andb_true_r. cbn [orb].
      destruct (c =? ch_bsl) eqn:Eb.
      * apply IH. apply Step. unfold ustep. cbn [fst snd]. now rewrite Eb.
      * unfold ck_comma, ch_comma. destruct (c =? 44) eqn:Ec; cbn [negb].
        -- cbn [map]. f_equal.
           ++ rewrite unescape_fold, Hst. cbn [fst snd]. unfold utrail. cbn. now rewrite app_nil_r.
           ++ apply IH. reflexivity.
        -- apply IH. apply Step. unfold ustep. cbn [fst snd]. now rewrite Eb.
Qed.

Lemma uv_loop_all_segs : forall p, map unescape (uv_loop_all p false []) = uv_segs p false [].
Proof. intros p. apply uv_loop_all_segs_gen. reflexivity. Qed.

(* with the first repair only, the keys are the non-empty values: the loop skips an empty item, and RemoveEscapeChars makes
   no item empty (a lone trailing escape character stands for itself) *)
Definition nonnil (v : list N) : bool := negb (is_nil v).

Lemma uv_loop_filter : forall p prevEsc scratch,
  uv_loop true p prevEsc scratch = filter nonnil (uv_loop_all p prevEsc scratch).
Proof.
  assert (R : forall s : list N, nonnil (rev s) = negb (is_nil s)) by (intros [|x s]; [reflexivity|]; cbn [rev]; now destruct (rev s)).
  induction p as [|c p IH]; intros prevEsc scratch; cbn [uv_loop uv_loop_all filter].
  - rewrite R. now destruct (is_nil scratch).
  - destruct ((c =? ch_bsl) && negb prevEsc); [apply IH|].
    destruct (prevEsc || negb (c =? ck_comma)); [apply IH|].
    cbn [filter]. rewrite R, <- IH. now destruct (is_nil scratch).
Qed.

Lemma unescape_nonnil : forall v, nonnil (unescape v) = nonnil v.
Proof.
  assert (A : forall s, nonnil (unescape_aux s true) = true).
  { intros [|c s]; cbn [unescape_aux orb app]; [rewrite tbl_keeps_trailing|]; reflexivity. }
  intros [|c s]; [reflexivity|]. unfold unescape. cbn [unescape_aux orb].
  destruct (c =? ch_bsl); cbn [negb andb app]; [apply A | reflexivity].
Qed.

Lemma uv_loop_values : forall p, map unescape (uv_loop true p false []) = uv_values p.
Proof.
  intros p. unfold uv_values. rewrite uv_loop_filter, <- uv_loop_all_segs.
  induction (uv_loop_all p false []) as [|v l IH]; [reflexivity|].
  cbn [filter map]. pose proof (unescape_nonnil v) as E. unfold nonnil in *. rewrite E. destruct (is_nil v); cbn [negb map]; now rewrite IH.
Qed.

(* the filters of the correspondence run: on the int32 field v of the node's Message (payload 0 = no such field) *)
Inductive fspec := FG (n : Z) | FL (n : Z) | FE (n : Z) | FX.

Definition fspec_match (f : fspec) (p : payload) : bool :=
  if N.eqb p 0 then false
  else let v := (Z.of_N p - 1)%Z in
       match f with FG k => Z.ltb k v | FL k => Z.ltb v k | FE k => Z.eqb v k | FX => true end.

Fixpoint text_eqb (a b : list N) : bool :=
  match a, b with
  | [], [] => true
  | x :: a', y :: b' => N.eqb x y && text_eqb a' b'
  | _, _ => false
  end.

Definition star_text : list N := [42].
Definition is_star (c : list N) : bool := text_eqb c star_text.

Section Inst.
Variable tbl : name -> list N.        (* the string a name stands for *)
Variable untbl : list N -> name.      (* the name of a string *)
Variable keep_esc : bool.             (* the repair of F52 *)

(* PutPathString: the clause text "*" gets no StringMatcher at all *)
Definition pmatch (c : list N) (k : name) : bool :=
  if is_star c then true else matches (sm_of ere_engine c) (tbl k).

Definition pkeys (c : list N) : option (list name) :=
  if is_star c then None
  else match clause_keys_with keep_esc (sm_of ere_engine c) with
       | Some ks => Some (map untbl ks)
       | None => None
       end.

Definition pat_ops : MatchOps :=
  {| clause := list N; clause_eqb := text_eqb; cmatch := pmatch; ckeys := pkeys; cstar := star_text;
     qfilter := fspec; fmatch := fspec_match |}.

(* the same with both repairs of the key parsing (F52 and F63): every item of a list pattern is a lookup key *)
Definition pkeys_all (c : list N) : option (list name) :=
  if is_star c then None
  else match clause_keys_all (sm_of ere_engine c) with
       | Some ks => Some (map untbl ks)
       | None => None
       end.

Definition pat_ops_all : MatchOps :=
  {| clause := list N; clause_eqb := text_eqb; cmatch := pmatch; ckeys := pkeys_all; cstar := star_text;
     qfilter := fspec; fmatch := fspec_match |}.

(* ... and, where a clause has lookup keys, "matches" read off the keys.  On every name that is the number of its own string
   this is the StringMatcher model again (pmatch_n_agrees below); on the other numbers -- which stand for no node name -- it
   is what makes the clause law hold of ALL numbers, the form C04's invariant proofs (class MatchLaws) ask for. *)
Fixpoint name_mem (k : name) (l : list name) : bool :=
  match l with [] => false | x :: r => N.eqb x k || name_mem k r end.

Definition pmatch_n (c : list N) (k : name) : bool :=
  match pkeys_all c with
  | Some ks => name_mem k ks
  | None => pmatch c k
  end.

Definition pat_ops_n : MatchOps :=
  {| clause := list N; clause_eqb := text_eqb; cmatch := pmatch_n; ckeys := pkeys_all; cstar := star_text;
     qfilter := fspec; fmatch := fspec_match |}.

End Inst.

(* SetPattern stores the text it was given *)
Lemma set_pattern_text : forall engine st0 p, s_pattern (fst (set_pattern engine st0 p true)) = p.
Proof.
  intros engine st0 p. unfold set_pattern.
  destruct (can_match_multiple p) as [multi only]. destruct (strip_negate p) as [neg str].
  destruct (simple_body str) as [[ranges rp] str'].
  (* the setters keep the text: name the state the regex is compiled into and forget how it was built *)
  match goal with |- context [set_uvlist ?x ?b] => set (u := set_uvlist x b) end.
  assert (E : s_pattern u = p) by (subst u; unfold free_regex; destruct (s_valid _); reflexivity).
  clearbody u. destruct (is_nil (s_ranges u)); [|exact E].
  destruct (is_nil _); [exact E|]. destruct (engine _); exact E.
Qed.

Lemma sm_of_text : forall c, s_pattern (sm_of ere_engine c) = c.
Proof. intros c. unfold sm_of. apply set_pattern_text. Qed.

Section Laws.
Variable tbl : name -> list N.
Variable untbl : list N -> name.
Hypothesis tbl_untbl : forall s, tbl (untbl s) = s.

(* a name that is the canonical number of a non-empty string *)
Definition okname (k : name) : Prop := tbl k <> [] /\ untbl (tbl k) = k.

Lemma ere_is_ere : forall re, ere_compile re <> CUnsupported -> ere_engine re = ere_engine re.
Proof. reflexivity. Qed.

(* the canonical names: the number of their own string (the empty string included) *)
Definition canon (k : name) : Prop := untbl (tbl k) = k.

Lemma uvlist_exact_ere : forall p t, is_uvlist (sm_of ere_engine p) = true ->
  (matches (sm_of ere_engine p) t = true <-> In t (uv_segs p false [])).
Proof. intros p t H. unfold sm_of in *. now apply (uvlist_exact ere_engine ere_is_ere p sm_init t). Qed.

(* The key texts ts of clause c are exact on the texts satisfying P: every key text matches, and a matching text that
   satisfies P is a key text.  All four clause laws below are this, read through the intern table. *)
Definition exact_on (P : list N -> Prop) (c : list N) (ts : list (list N)) : Prop :=
  forall t, (In t ts -> matches (sm_of ere_engine c) t = true) /\ (P t -> matches (sm_of ere_engine c) t = true -> In t ts).

Lemma unique_exact : forall P c, is_unique (sm_of ere_engine c) = true -> exact_on P c [unescape c].
Proof.
  intros P c Hun t. destruct (model_laws ere_engine ere_is_ere) as [US _]. specialize (US c t Hun). cbn [In].
  split; [intros [E|[]]; now apply US | intros _ Hm; left; symmetry; now apply US].
Qed.

Lemma keys_all_exact : forall c ts, clause_keys_all (sm_of ere_engine c) = Some ts -> exact_on (fun _ => True) c ts.
Proof.
  intros c ts Hk. unfold clause_keys_all in Hk. rewrite sm_of_text in Hk.
  destruct (is_uvlist (sm_of ere_engine c)) eqn:Huv.
  - inversion Hk; subst ts. rewrite uv_loop_all_segs. intros t. rewrite (uvlist_exact_ere c t Huv). tauto.
  - destruct (is_unique (sm_of ere_engine c)) eqn:Hun; [|discriminate]. inversion Hk; subst ts. now apply unique_exact.
Qed.

Lemma keys_with_exact : forall c ts, clause_keys_with true (sm_of ere_engine c) = Some ts -> exact_on (fun t => t <> []) c ts.
Proof.
  intros c ts Hk. unfold clause_keys_with in Hk. rewrite sm_of_text in Hk.
  destruct (is_uvlist (sm_of ere_engine c)) eqn:Huv.
  - inversion Hk; subst ts. rewrite uv_loop_values. intros t. unfold uv_values. rewrite filter_In, (uvlist_exact_ere c t Huv).
    split; [tauto|]. intros Hne Hm. split; [exact Hm|]. now destruct t.
  - destruct (is_unique (sm_of ere_engine c)) eqn:Hun; [|discriminate]. inversion Hk; subst ts. now apply unique_exact.
Qed.

Lemma key_names_complete : forall P c ts k, exact_on P c ts -> is_star c = false -> In k (map untbl ts) -> pmatch tbl c k = true.
Proof.
  intros P c ts k X S Hin. unfold pmatch. rewrite S.
  apply in_map_iff in Hin. destruct Hin as [t [E Ht]]. subst k. rewrite tbl_untbl. now apply X.
Qed.

Lemma key_names_sound : forall P c ts k, exact_on P c ts -> is_star c = false ->
  canon k -> P (tbl k) -> pmatch tbl c k = true -> In k (map untbl ts).
Proof. intros P c ts k X S Hcan HP Hm. unfold pmatch in Hm. rewrite S in Hm. rewrite <- Hcan. apply in_map. now apply X. Qed.

Theorem pkeys_sound : forall (c : list N) (ks : list name) (k : name),
  okname k -> pkeys untbl true c = Some ks -> pmatch tbl c k = true -> In k ks.
Proof.
  intros c ks k [Hne Hcan] Hk. unfold pkeys in Hk. destruct (is_star c) eqn:S; [discriminate|].
  destruct (clause_keys_with true (sm_of ere_engine c)) as [ts|] eqn:E; [|discriminate]. inversion Hk; subst ks.
  now apply (key_names_sound _ c ts k (keys_with_exact c ts E) S).
Qed.

Theorem pkeys_complete : forall (c : list N) (ks : list name) (k : name),
  pkeys untbl true c = Some ks -> In k ks -> pmatch tbl c k = true.
Proof.
  intros c ks k Hk. unfold pkeys in Hk. destruct (is_star c) eqn:S; [discriminate|].
  destruct (clause_keys_with true (sm_of ere_engine c)) as [ts|] eqn:E; [|discriminate]. inversion Hk; subst ks.
  now apply (key_names_complete _ c ts k (keys_with_exact c ts E) S).
Qed.

Theorem pkeys_all_sound : forall (c : list N) (ks : list name) (k : name),
  canon k -> pkeys_all untbl c = Some ks -> pmatch tbl c k = true -> In k ks.
Proof.
  intros c ks k Hcan Hk. unfold pkeys_all in Hk. destruct (is_star c) eqn:S; [discriminate|].
  destruct (clause_keys_all (sm_of ere_engine c)) as [ts|] eqn:E; [|discriminate]. inversion Hk; subst ks.
  now apply (key_names_sound _ c ts k (keys_all_exact c ts E) S).
Qed.

Theorem pkeys_all_complete : forall (c : list N) (ks : list name) (k : name),
  pkeys_all untbl c = Some ks -> In k ks -> pmatch tbl c k = true.
Proof.
  intros c ks k Hk. unfold pkeys_all in Hk. destruct (is_star c) eqn:S; [discriminate|].
  destruct (clause_keys_all (sm_of ere_engine c)) as [ts|] eqn:E; [|discriminate]. inversion Hk; subst ks.
  now apply (key_names_complete _ c ts k (keys_all_exact c ts E) S).
Qed.

Lemma name_mem_in : forall k l, name_mem k l = true <-> In k l.
Proof.
  intros k l. induction l as [|x l IH]; cbn; [split; [discriminate | intros []]|].
  rewrite orb_true_iff, IH, N.eqb_eq. tauto.
Qed.

(* on canonical names the law-normalised instance IS the StringMatcher model *)
Theorem pmatch_n_agrees : forall (c : list N) (k : name), canon k -> pmatch_n tbl untbl c k = pmatch tbl c k.
Proof.
  intros c k Hcan. unfold pmatch_n. destruct (pkeys_all untbl c) as [ks|] eqn:Hk; [|reflexivity].
  apply eq_true_iff_eq. rewrite name_mem_in. split.
  - now apply (pkeys_all_complete c ks k Hk).
  - now apply (pkeys_all_sound c ks k Hcan Hk).
Qed.

End Laws.

Lemma text_eqb_spec : forall a b : list N, text_eqb a b = true <-> a = b.
Proof. exact path_eqb_eq. Qed.

(* pat_ops_n satisfies C04's class of clause laws outright, of ALL name numbers: where a clause has keys its
   "matches" is read off them *)
#[global] Instance PatLaws (tbl : name -> list N) (untbl : list N -> name) : MatchLaws (pat_ops_n tbl untbl).
Proof.
  constructor.
  - exact text_eqb_spec.
  - intros k. reflexivity.
  - intros c ks Hk k. cbn [cmatch ckeys pat_ops_n] in *. unfold pmatch_n. rewrite Hk. apply name_mem_in.
Qed.

(* F52: with the key parsing as found (escape characters dropped before DoDirectChildLookup unescapes once more) a clause
   reports a lookup key it does not match: the clause  a\\b,c  looks up  ab *)
Lemma uvkeys_refuted_as_found_lemma :
  exists (p k : list N),
    is_uvlist (sm_of ere_engine p) = true /\
    (exists ks, clause_keys_with false (sm_of ere_engine p) = Some ks /\ In k ks) /\
    matches (sm_of ere_engine p) k = false /\
    clause_keys_with true (sm_of ere_engine p) = Some [[97; 92; 98]; [99]].
Proof.
  exists [97; 92; 92; 98; 44; 99], [97; 98]. split; [vm_compute; reflexivity|]. split.
  - exists [[97; 98]; [99]]. split; [vm_compute; reflexivity | now left].
  - split; vm_compute; reflexivity.
Qed.
