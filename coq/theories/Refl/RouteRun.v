(* Refl/RouteRun.v -- what holds for EVERY history of events and every setting of the repairs: outgoing queues only
   grow, each event appends only copies of its own Message, so Messages of one sender reach a receiver in the order
   sent (fifo_lemma); the sender field of every delivered Message names the session it came in on (sender_field_lemma).
   Everything about single events goes through rcmd_evolves, which says what a client command does to the routing records. *)
From Coq Require Import List NArith Bool.
From Muscle Require Import Refl.Base Refl.Tree Refl.Traverse Refl.Session Refl.Server Refl.Route Refl.TravBase
  Refl.TraverseTheorems Refl.TraverseExit.
Import ListNotations.

(* l is obtained from L by dropping elements and possibly repeating the ones that are kept *)
Inductive stutter_sub {B : Type} : list B -> list B -> Prop :=
| ss_nil : forall L, stutter_sub [] L
| ss_skip : forall l x L, stutter_sub l L -> stutter_sub l (x :: L)
| ss_take : forall l x L, stutter_sub l (x :: L) -> stutter_sub (x :: l) (x :: L).

Lemma stutter_repeat : forall (B : Type) (x : B) (k : nat) (l L : list B),
  stutter_sub l L -> stutter_sub (repeat x k ++ l) (x :: L).
Proof.
  intros B x k l L H. induction k as [|k IH]; cbn.
  - now apply ss_skip.
  - now apply ss_take.
Qed.

Lemma stutter_incl : forall (B : Type) (l L : list B), stutter_sub l L -> incl l L.
Proof.
  intros B l L H. induction H as [L | l x L H IH | l x L H IH]; intros y Hy.
  - destruct Hy.
  - right. now apply IH.
  - destruct Hy as [Hy|Hy]; [now left | now apply IH].
Qed.

Lemma repeat_snoc : forall (B : Type) (x : B) (k : nat), repeat x k ++ [x] = repeat x (S k).
Proof. intros B x k. induction k as [|k IH]; cbn; [reflexivity|]. now rewrite IH. Qed.

(* PR_COMMAND_SETPARAMETERS and PR_COMMAND_REMOVEPARAMETERS change a session's record only through the four setters below, so
   whatever the setters preserve survives both commands. *)
Section Params.
Context {M : MatchOps}.
Variable Q : rinfo -> Prop.
Hypothesis Q_flags : forall x r g n, Q x -> Q (set_flags x r g n).
Hypothesis Q_pnames : forall x l, Q x -> Q (set_pnames x l).
Hypothesis Q_rmsg : forall x ks fs, Q x -> Q (set_rmsg x ks fs).
Hypothesis Q_route : forall x, Q x -> Q (update_route x).

Lemma Q_let : forall (a : rinfo) (f : rinfo -> rinfo), Q a -> (forall x, Q x -> Q (f x)) -> Q (let x := a in f x).
Proof. intros a f Ha Hf. exact (Hf a Ha). Qed.

Lemma set_params_ind : forall fx ri p, Q ri -> Q (set_params fx ri p).
Proof.
  intros fx ri p H. cbv beta delta [set_params].
  (* the handler of each field is a [let] of its own: cut them apart instead of substituting them (every record occurs
     some five times in the next one) *)
  repeat match goal with |- Q (let x := ?a in @?f x) => apply (Q_let a f); [|clear ri H; intros ri H] end.
  - destruct (sp_reflect p); auto.
  - destruct (sp_gw2nb p); auto.
  - destruct (sp_nb2gw p); auto.
  - destruct (sp_keys p); [assumption|]. cbv zeta. destruct (rf_route fx); auto.
  - destruct (sp_flts p); [|assumption]. cbv zeta. destruct (rf_route fx); auto.
  - destruct (sp_keys p), (sp_flts p); auto.
Qed.

Lemma remove_param_ind : forall ri p, Q ri -> Q (remove_param ri p).
Proof. intros ri p H. unfold remove_param. destruct (has_param (ri_params ri) p); [|assumption]. destruct p; auto. Qed.

Lemma remove_params_ind : forall l ri, Q ri -> Q (remove_params ri l).
Proof.
  intros l ri H. unfold remove_params. change ri with (fst (ri, false)) in H. revert H. generalize (ri, false).
  induction l as [|p l IH]; intros acc H; cbn [fold_left].
  - destruct acc as [ri1 [|]]; auto.
  - apply IH. now apply remove_param_ind.
Qed.

End Params.

Lemma Forall2_diag : forall (B : Type) (R : B -> B -> Prop) (l : list B), (forall x, R x x) -> Forall2 R l l.
Proof. intros B R l H. induction l; constructor; auto. Qed.

Lemma Forall2_map_self : forall (B : Type) (R : B -> B -> Prop) (f : B -> B) (l : list B), (forall x, R x (f x)) -> Forall2 R l (map f l).
Proof. intros B R f l H. induction l; cbn [map]; constructor; auto. Qed.

Lemma forall2_in_r : forall (B C : Type) (R : B -> C -> Prop) (l : list B) (l' : list C) (y : C),
  Forall2 R l l' -> In y l' -> exists x, In x l /\ R x y.
Proof.
  intros B C R l l' y H. induction H as [|a b l l' Hab H IH]; intros Hy; [destruct Hy|].
  destruct Hy as [Hy|Hy]; [subst; exists a; split; [now left | assumption]|].
  destruct (IH Hy) as [x [H1 H2]]. exists x. split; [now right | assumption].
Qed.

Section Run.
Context {M : MatchOps}.
Variable fx : rfixes.

(* what the parameter commands leave alone: the id, the queue, and that the default-route table is well formed *)
Definition kept (a b : rinfo) : Prop :=
  ri_id b = ri_id a /\ ri_inbox b = ri_inbox a /\ (matcher_wf (ri_route a) -> matcher_wf (ri_route b)).

Lemma kept_refl : forall a, kept a a.
Proof. intros a. split; [reflexivity|]. split; [reflexivity | trivial]. Qed.

Lemma kept_update : forall a x, kept a x -> kept a (update_route x).
Proof. intros a x [H1 [H2 _]]. split; [exact H1|]. split; [exact H2|]. intros _. apply m_of_list_wf. Qed.

Lemma set_params_kept : forall ri p, kept ri (set_params fx ri p).
Proof. intros ri p. apply set_params_ind with (Q := kept ri); auto using kept_refl, kept_update. Qed.

Lemma remove_param_kept : forall ri p, kept ri (remove_param ri p).
Proof. intros ri p. apply remove_param_ind with (Q := kept ri); auto using kept_refl. Qed.

Lemma remove_params_kept : forall l ri, kept ri (remove_params ri l).
Proof. intros l ri. apply remove_params_ind with (Q := kept ri); auto using kept_refl, kept_update. Qed.

Lemma remove_param_route : forall ri p, ri_route (remove_param ri p) = ri_route ri.
Proof. intros ri p. unfold remove_param. destruct (has_param (ri_params ri) p); [|reflexivity]. destruct p; reflexivity. Qed.

(* the Message an event hands to the routing code, as its receivers will see it *)
Definition ev_dlv (st : rstate) (ev : revent) : list dlv :=
  match ev with
  | RCmd s (RMsg m) =>
    if in_cmd_range (u_what m) then []
    else match get_session (rs_srv st) s, get_info st s with
         | Some ss, Some _ => [mkD s (u_tag m) (overwrite (u_session m) (s_name ss))]
         | _, _ => []
         end
  | _ => []
  end.

(* b is a with some copies of the event's Message appended *)
Definition grown_by (new : list dlv) (a b : rinfo) : Prop :=
  ri_id b = ri_id a /\ exists k, ri_inbox b = ri_inbox a ++ flat_map (fun d => repeat d k) new.

Lemma grown_by_same : forall new a b, ri_id b = ri_id a /\ ri_inbox b = ri_inbox a -> grown_by new a b.
Proof.
  intros new a b [H1 H2]. split; [exact H1|]. exists 0. rewrite H2.
  induction new as [|d new IH]; cbn; [now rewrite app_nil_r | exact IH].
Qed.

(* what a client command does to a routing record: it keeps its id, its queue gains copies of the command's own Message,
   its default-route table stays well formed *)
Definition evolved (new : list dlv) (a b : rinfo) : Prop :=
  grown_by new a b /\ (matcher_wf (ri_route a) -> matcher_wf (ri_route b)).

Lemma evolved_refl : forall new a, evolved new a a.
Proof. intros new a. split; [now apply grown_by_same | trivial]. Qed.

Lemma put_inbox_route : forall s d ri, ri_route (put_inbox s d ri) = ri_route ri.
Proof. intros s d ri. unfold put_inbox. destruct (N.eqb s (ri_id ri) || ri_nb2gw ri); reflexivity. Qed.

Lemma evolved_put : forall d s a b, evolved [d] a b -> evolved [d] a (put_inbox s d b).
Proof.
  intros d s a b [[H1 [k H2]] H3]. rewrite <- (put_inbox_route s d b) in H3. split; [|exact H3].
  unfold put_inbox. destruct (N.eqb s (ri_id b) || ri_nb2gw b); [|now split; [|exists k]].
  split; [exact H1|]. exists (S k). cbn [ri_inbox set_inbox flat_map] in *. rewrite app_nil_r in *.
  now rewrite H2, <- app_assoc, repeat_snoc.
Qed.

Lemma evolved_deliver : forall d s r infos0 infos,
  Forall2 (evolved [d]) infos0 infos -> Forall2 (evolved [d]) infos0 (deliver_to infos s r d).
Proof.
  intros d s r infos0 infos H. unfold deliver_to. induction H as [|a b l l' Hab H IH]; cbn; [constructor|].
  constructor; [|assumption]. destruct (N.eqb (ri_id b) r); [now apply evolved_put | assumption].
Qed.

Lemma pass_traversal_evolved : forall st s self_ok d mt,
  Forall2 (evolved [d]) (rs_info st) (pass_traversal fx st s self_ok d mt).
Proof.
  intros st s self_ok d mt. unfold pass_traversal, do_traversal.
  apply (trav_invariant _ _ _ _ _ _ _ (fun acc : list rinfo * list sid => Forall2 (evolved [d]) (rs_info st) (fst acc))).
  - intros acc n H. unfold pass_cb. destruct (owner_of (sv_sessions (rs_srv st)) (n_path n)) as [ss|]; [|assumption].
    destruct ((negb (N.eqb (s_id ss) s) || self_ok) && negb (rf_once fx && sid_mem (s_id ss) (snd acc))); [|assumption].
    cbn [fst]. now apply evolved_deliver.
  - apply Forall2_diag, evolved_refl.
Qed.

Lemma broadcast_evolved : forall sessions s to_self d infos0 infos,
  Forall2 (evolved [d]) infos0 infos -> Forall2 (evolved [d]) infos0 (broadcast sessions s to_self d infos).
Proof.
  intros sessions s to_self d infos0. unfold broadcast. induction sessions as [|ss l IH]; intros infos H; [assumption|].
  cbn [fold_left]. apply IH. destruct (to_self || negb (N.eqb (s_id ss) s)); [now apply evolved_deliver | assumption].
Qed.

Lemma rcmd_evolves : forall st s c, Forall2 (evolved (ev_dlv st (RCmd s c))) (rs_info st) (rs_info (rstep fx st (RCmd s c))).
Proof.
  intros st s c.
  assert (Same : forall new, Forall2 (evolved new) (rs_info st) (rs_info st)) by (intros new; apply Forall2_diag, evolved_refl).
  assert (Upd : forall new f, (forall x, kept x (f x)) -> Forall2 (evolved new) (rs_info st) (rs_info (upd_info st s f))).
  { intros new f K. apply Forall2_map_self. intros x. destruct (N.eqb (ri_id x) s); [|apply evolved_refl].
    destruct (K x) as [H1 [H2 H3]]. split; [now apply grown_by_same | exact H3]. }
  cbn [rstep]. destruct (get_session (rs_srv st) s) as [ss|] eqn:Hs; [|apply Same].
  destruct c as [p | l | m | c']; [| | |apply Same].
  - (* RSetParams *) apply Upd. intros x. apply set_params_kept.
  - (* RRemoveParams *) apply Upd. intros x. apply remove_params_kept.
  - (* RMsg *) unfold route_msg. cbn [ev_dlv]. rewrite Hs. destruct (in_cmd_range (u_what m)); [apply Same|].
    destruct (get_info st s) as [ri0|]; [|apply Same].
    destruct (u_keys m); [|apply pass_traversal_evolved].
    destruct (has_param (ri_params ri0) PKeys); [apply pass_traversal_evolved|].
    destruct (ri_gw2nb ri0); [apply broadcast_evolved|]; apply Same.
Qed.

(* one event: every queue afterwards is a queue from before with copies of the event's Message appended, or a new empty one *)
Theorem step_appends : forall (st : rstate) (ev : revent) (ri' : rinfo),
  In ri' (rs_info (rstep fx st ev)) ->
  (exists ri, In ri (rs_info st) /\ grown_by (ev_dlv st ev) ri ri') \/ ri_inbox ri' = [].
Proof.
  intros st ev ri' H.
  assert (Same : In ri' (rs_info st) -> (exists ri, In ri (rs_info st) /\ grown_by (ev_dlv st ev) ri ri') \/ ri_inbox ri' = []).
  { intros X. left. exists ri'. split; [assumption | now apply grown_by_same]. }
  destruct ev as [s host nm | s | s c].
  - (* RAttach *) cbn [rstep] in H. destruct (get_session (rs_srv st) s); [now apply Same|]. cbn [rs_info] in H.
    apply in_app_or in H. destruct H as [H|[H|[]]]; [now apply Same | subst ri'; now right].
  - (* RDetach *) cbn [rstep rs_info] in H. apply filter_In in H. destruct H as [H _]. now apply Same.
  - (* RCmd *) destruct (forall2_in_r _ _ _ _ _ _ (rcmd_evolves st s c) H) as [ri [H1 [H2 _]]]. left. now exists ri.
Qed.

Lemma rrun_invariant : forall P : rstate -> Prop,
  (forall st ev, P st -> P (rstep fx st ev)) -> forall evs st, P st -> P (rrun fx evs st).
Proof. intros P H evs. induction evs as [|ev evs IH]; intros st H0; [exact H0|]. cbn [rrun fold_left]. apply IH, H, H0. Qed.

(* the Messages handed to the routing code during a history, in order *)
Fixpoint log (st : rstate) (evs : list revent) : list dlv :=
  match evs with
  | [] => []
  | ev :: evs' => ev_dlv st ev ++ log (rstep fx st ev) evs'
  end.

Lemma stutter_app_skip : forall (B : Type) (l pre L : list B), stutter_sub l L -> stutter_sub l (pre ++ L).
Proof. intros B l pre L H. induction pre as [|x pre IH]; cbn; [assumption | now apply ss_skip]. Qed.

Lemma stutter_flat : forall (B : Type) (k : nat) (new l L : list B),
  stutter_sub l L -> stutter_sub (flat_map (fun d => repeat d k) new ++ l) (new ++ L).
Proof.
  intros B k new l L H. induction new as [|d new IH]; cbn [flat_map app]; [assumption|].
  rewrite <- app_assoc. now apply stutter_repeat.
Qed.

(* a queue at the end of a history = the queue it started from (or an empty one) followed by a stuttering subsequence of the
   Messages sent, in the order they were sent *)
Theorem fifo_lemma : forall (evs : list revent) (st : rstate) (ri' : rinfo),
  In ri' (rs_info (rrun fx evs st)) ->
  exists pre l, ri_inbox ri' = pre ++ l /\
                (pre = [] \/ exists ri, In ri (rs_info st) /\ ri_id ri = ri_id ri' /\ pre = ri_inbox ri) /\
                stutter_sub l (log st evs).
Proof.
  induction evs as [|ev evs IH]; intros st ri' H.
  - cbn in H. exists (ri_inbox ri'), []. split; [now rewrite app_nil_r|]. split; [|constructor].
    right. exists ri'. now repeat split.
  - cbn [rrun fold_left] in H. destruct (IH (rstep fx st ev) ri' H) as [pre [l [H1 [H2 H3]]]].
    cbn [log]. destruct H2 as [H2 | [ri1 [H2 [H4 H5]]]].
    + exists pre, l. split; [assumption|]. split; [now left | now apply stutter_app_skip].
    + destruct (step_appends st ev ri1 H2) as [[ri [H6 [H7 [k H8]]]] | H6].
      * exists (ri_inbox ri), (flat_map (fun d => repeat d k) (ev_dlv st ev) ++ l). split.
        -- rewrite H1, H5, H8, <- app_assoc. reflexivity.
        -- split; [right; exists ri; split; [assumption|]; split; [congruence | reflexivity] | now apply stutter_flat].
      * exists [], l. split; [rewrite H1, H5, H6; reflexivity|]. split; [now left | now apply stutter_app_skip].
Qed.

Theorem sender_field_lemma : forall (st : rstate) (ev : revent) (d : dlv),
  In d (ev_dlv st ev) ->
  exists s ss m, ev = RCmd s (RMsg m) /\ get_session (rs_srv st) s = Some ss /\ d_from d = s /\ d_tag d = u_tag m /\
                 d_field d = overwrite (u_session m) (s_name ss) /\
                 (forall v r, d_field d = SStr (v :: r) -> v = s_name ss) /\
                 (u_session m = SAbsent -> d_field d = SAbsent).
Proof.
  intros st ev d H. destruct ev as [? ? ? | ? | s c]; try destruct H. destruct c as [? | ? | m | ?]; try destruct H.
  cbn [ev_dlv] in H. destruct (in_cmd_range (u_what m)); [destruct H|].
  destruct (get_session (rs_srv st) s) as [ss|] eqn:Hs; [|destruct H]. destruct (get_info st s); [|destruct H].
  destruct H as [H|[]]. subst d. exists s, ss, m. cbn [d_from d_tag d_field].
  split; [reflexivity|]. split; [exact Hs|]. split; [reflexivity|]. split; [reflexivity|]. split; [reflexivity|]. split.
  - intros v rest E. destruct (u_session m) as [|[|v0 r0]|]; cbn in E; try discriminate. now inversion E.
  - intros E. now rewrite E.
Qed.

End Run.
