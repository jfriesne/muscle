(* Refl/IsoAsIf.v -- C06, as-if-never at the dispatcher level: the simulation relation of Refl/IsoSim.v through whole turns
   of the server (command, update push, removal of kicked sessions), with sessions that hold PR_PRIVILEGE_KICK present;
   the events of s itself leave the erased side alone, and when s has left the two states agree. *)
From Coq Require Import List NArith ZArith Bool Arith Lia Permutation.
From Muscle Require Import Gen.Consts Refl.Base Refl.BaseProofs Refl.Tree Refl.TreeProofs Refl.Matcher Refl.MatcherProofs
     Refl.Traverse Refl.TraverseSpec Refl.Session Refl.Server Refl.ServerProofs Refl.IsoModel Refl.IsoBase Refl.IsoFrame
     Refl.IsoSimBase Refl.IsoSim Refl.IsoDetach Refl.IsoRun Refl.IsoHosts Refl.IsoNever Refl.IsoKick.
Import ListNotations.

Section AsIf.
Context {M : MatchOps} {L : MatchLaws M}.
Variable fx : fixes.
Hypothesis guard_on : fx_guard fx = true.
Variable s : sid.

(* ------------------------------------------------------------------ privilege tables *)

Lemma priv_remove_comm : forall l a b, priv_remove (priv_remove l a) b = priv_remove (priv_remove l b) a.
Proof. intros. unfold priv_remove. apply filter_comm. Qed.

Lemma priv_remove_app_other : forall l k b, k <> s -> priv_remove (l ++ [(k, b)]) s = priv_remove l s ++ [(k, b)].
Proof.
  intros l k b Hk. unfold priv_remove. rewrite filter_app. cbn [filter fst].
  assert (N.eqb k s = false) as -> by now apply N.eqb_neq. reflexivity.
Qed.

Lemma priv_remove_app_self : forall l b, priv_remove (l ++ [(s, b)]) s = priv_remove l s.
Proof. intros l b. unfold priv_remove. rewrite filter_app. cbn [filter fst]. rewrite N.eqb_refl. cbn [negb]. apply app_nil_r. Qed.

(* s does not hold PR_PRIVILEGE_KICK *)
Definition nokick_s (xs : xserver) : Prop := N.testbit (priv_get (xs_priv xs) s) c_PR_PRIVILEGE_KICK = false.

Lemma nokick_s_app : forall l k b, N.testbit (priv_get l s) c_PR_PRIVILEGE_KICK = false ->
  (k = s -> N.testbit b c_PR_PRIVILEGE_KICK = false) ->
  N.testbit (priv_get (l ++ [(k, b)]) s) c_PR_PRIVILEGE_KICK = false.
Proof.
  induction l as [|[k0 b0] r IH]; intros k b K Hb; cbn [app priv_get] in *.
  - destruct (N.eqb k s) eqn:E; [apply N.eqb_eq in E; now apply Hb|apply N.bits_0].
  - destruct (N.eqb k0 s); [exact K|now apply IH].
Qed.

Lemma nokick_s_filter : forall (f : sid -> bool) l, N.testbit (priv_get l s) c_PR_PRIVILEGE_KICK = false ->
  N.testbit (priv_get (filter (fun kb : sid * N => f (fst kb)) l) s) c_PR_PRIVILEGE_KICK = false.
Proof. intros f l K. rewrite priv_get_filter. destruct (f s); [exact K|apply N.bits_0]. Qed.

(* ------------------------------------------------------------------ the relation between the two servers *)

Definition xrel (XF XE : xserver) : Prop :=
  rel s (xs_sv XF) (xs_sv XE) /\ priv_remove (xs_priv XF) s = xs_priv XE /\ duck_rel s (xs_ducks XF) (xs_ducks XE) /\ nokick_s XF.

Lemma has_priv_erased : forall XF XE t p, priv_remove (xs_priv XF) s = xs_priv XE -> t <> s -> has_priv XE t p = has_priv XF t p.
Proof.
  intros XF XE t p P Ht. unfold has_priv. rewrite <- P, priv_get_remove.
  assert (N.eqb s t = false) as -> by (apply N.eqb_neq; congruence). reflexivity.
Qed.

Lemma dispatch_sim : forall B XF XE a a' what keys sess, good B (xs_sv XF) (xs_sv XE) ->
  xrel XF XE -> s_id a' = s_id a -> s_id a <> s ->
  xrel (dispatch fx XF a what keys sess) (dispatch fx XE a' what keys sess).
Proof.
  intros B XF XE a a' what keys sess G [R [P [D K]]] Hid Ht. unfold xrel, nokick_s.
  rewrite !dispatch_sv, !dispatch_priv, !dispatch_ducks, Hid, (has_priv_erased XF XE (s_id a) _ P Ht).
  split; [exact R|]. split; [exact P|]. split; [|exact K].
  destruct (in_command_range what && N.eqb what c_PR_COMMAND_KICK && has_priv XF (s_id a) c_PR_PRIVILEGE_KICK); [|exact D].
  destruct keys as [|k0 keys]; [exact D|]. now apply (kick_ducks_sim fx guard_on s B).
Qed.

Lemma xhandle_keeps : forall c nest xs k,
  let sv1 := xs_sv (xhandle fx nest xs k c) in
  (hosts_ok (xs_sv xs) -> hosts_ok sv1) /\ (names_ok (xs_sv xs) -> names_ok sv1) /\ sdir s sv1 = sdir s (xs_sv xs).
Proof.
  intros c nest xs k sv1. destruct (xhandle_xframe_ex fx c nest xs k) as [dir [Hd [Fr _]]]. fold sv1 in Fr.
  split; [now apply (hosts_ok_frame _ _ k dir)|]. split; [apply names_ok_idents, Fr|apply (sdir_idents s), Fr].
Qed.

Lemma good_push : forall B F E, good B F E -> good B (push_all F) (push_all E).
Proof.
  intros B F E (IF & IE & HF & HE & NF).
  split; [eapply inv_same_core; [apply push_all_core|exact IF]|]. split; [eapply inv_same_core; [apply push_all_core|exact IE]|].
  split; [eapply hosts_ok_same_state; [apply push_all_same|exact HF]|]. split; [eapply hosts_ok_same_state; [apply push_all_same|exact HE]|].
  apply (names_ok_idents F); [|exact NF]. apply all_params_idents, push_all_same.
Qed.

Lemma xhandle_good : forall c nest XF XE t B, small (B + xcmd_budget c) -> good B (xs_sv XF) (xs_sv XE) ->
  good (B + xcmd_budget c) (xs_sv (xhandle fx nest XF t c)) (xs_sv (xhandle fx nest XE t c)).
Proof.
  intros c nest XF XE t B HB (IF & IE & HF & HE & NF).
  destruct (xhandle_keeps c nest XF t) as [KF1 [KF2 _]]. destruct (xhandle_keeps c nest XE t) as [KE1 _].
  split; [now apply (xhandle_inv fx guard_on)|]. split; [now apply (xhandle_inv fx guard_on)|]. auto.
Qed.

Theorem xhandle_sim : forall c nest XF XE t B, small (B + xcmd_budget c) -> good B (xs_sv XF) (xs_sv XE) ->
  xrel XF XE -> t <> s -> xrel (xhandle fx nest XF t c) (xhandle fx nest XE t c).
Proof.
  induction c as [b|f i|q k|w k|b| |w k se|l IHl] using xcmd_ind'; intros nest XF XE t B HB G X Ht;
    pose proof G as (IF & IE & _); pose proof X as [R [P [D K]]]; pose proof (rel_get_session s _ _ t (proj2 R) Ht) as Hg; cbn [xhandle];
    (destruct (get_session (xs_sv XF) t) as [a|] eqn:Ha; destruct (get_session (xs_sv XE) t) as [a'|] eqn:Ha'; try contradiction; [|exact X]).
  (* XBase, XSetData, XRemoveData: the handler of Refl/Server.v *)
  1-3: split; [|exact (conj P (conj D K))]; now apply (handle_sim fx guard_on s _ _ _ _ t B).
  - (* XCode *) apply sparams_parts in Hg as [Hg _]. apply (dispatch_sim B); auto. rewrite (get_session_id _ _ _ Ha). exact Ht.
  - (* XSetPriv *) exact X.
  - (* XRemovePriv *) split; [exact R|]. cbn [xs_priv xs_ducks with_priv]. split; [rewrite priv_remove_comm; now rewrite P|]. split; [exact D|].
    now apply (nokick_s_filter (fun j => negb (N.eqb j t))).
  - (* XMessage *) apply sparams_parts in Hg as [Hg _]. apply (dispatch_sim B); auto. rewrite (get_session_id _ _ _ Ha). exact Ht.
  - (* XBatch *) rewrite (xcmd_budget_batch l) in HB. destruct (Nat.ltb _ _); [|exact X]. rewrite !batch_loop.
    clear IF IE R P D K Hg Ha Ha'. revert XF XE B HB G X.
    induction IHl as [|c l Hc _ IHl']; intros XF XE B HB G X; cbn [fold_left xsum] in *; [exact X|].
    assert (HBc : small (B + xcmd_budget c)) by (eapply small_le; [|exact HB]; lia).
    pose proof (Hc (S nest) XF XE t B HBc G X Ht) as [R1 PDK].
    apply (IHl' _ _ (B + xcmd_budget c)); [now rewrite <- Nat.add_assoc|now apply good_push, xhandle_good|].
    split; [|exact PDK]. cbn [xs_sv with_sv]. eapply rel_same_state; [apply push_all_same|apply push_all_same|exact R1].
Qed.

(* a session without PR_PRIVILEGE_KICK marks nobody for removal, and cannot give itself the privilege *)
Definition quiet_s (xs xs' : xserver) : Prop := nokick_s xs -> xs_ducks xs' = xs_ducks xs /\ nokick_s xs'.

Lemma quiet_s_refl : forall xs, quiet_s xs xs.
Proof. now split. Qed.

Lemma quiet_s_trans : forall a b c, quiet_s a b -> quiet_s b c -> quiet_s a c.
Proof. intros a b c H1 H2 K. destruct (H1 K) as [D1 K1]. destruct (H2 K1) as [D2 K2]. split; [congruence|exact K2]. Qed.

Lemma xhandle_self_quiet : forall c nest xs, quiet_s xs (xhandle fx nest xs s c).
Proof.
  assert (Hdis : forall xs a w ky se, get_session (xs_sv xs) s = Some a -> quiet_s xs (dispatch fx xs a w ky se)).
  { intros xs a w ky se Ha K. unfold nokick_s. rewrite dispatch_priv, dispatch_ducks. unfold has_priv.
    rewrite (get_session_id _ _ _ Ha), K, andb_false_r. now split. }
  induction c as [b|f i|q ky|w ky|b| |w ky se|l IHl] using xcmd_ind'; intros nest xs; cbn [xhandle];
    (destruct (get_session (xs_sv xs) s) as [a|] eqn:Ha; [|apply quiet_s_refl]); try (now split); try (now apply Hdis).
  - intros K. split; [reflexivity|]. now apply (nokick_s_filter (fun j => negb (N.eqb j s))).
  - destruct (Nat.ltb _ _); [|apply quiet_s_refl]. rewrite batch_loop. apply fold_chain; [apply quiet_s_refl|apply quiet_s_trans|].
    intros xs' c Hc. eapply quiet_s_trans; [apply (proj1 (Forall_forall _ _) IHl c Hc)|now split].
Qed.

(* ------------------------------------------------------------------ session names *)

(* a session arrives under a name (the server's id string) no session has, which is nobody's host name either, and from a
   host whose name is not a session name *)
Definition xnm_event (xs : xserver) (ev : xevent) : Prop :=
  match ev with
  | XAttach _ host nm _ =>
    nm <> host /\ forall x, In x (sv_sessions (xs_sv xs)) -> s_name x <> nm /\ s_name x <> host /\ s_host x <> nm
  | _ => True
  end.

Fixpoint xnm_run (xs : xserver) (evs : list xevent) : Prop :=
  match evs with
  | [] => True
  | ev :: r => xnm_event xs ev /\ xnm_run (xstep fx xs ev) r
  end.

Lemma names_ok_detach : forall sv k, names_ok sv -> names_ok (detach fx sv k).
Proof.
  intros sv k H. apply (names_ok_sub (sv_sessions sv) (fun x => negb (N.eqb (s_id x) k)) sv); [reflexivity| |exact H].
  apply idents_of_params. apply (detach_params fx).
Qed.

Lemma names_ok_attach : forall sv k host nm, names_ok sv -> xnm_event (mkX sv [] [] []) (XAttach k host nm 0) ->
  names_ok (attach sv k host nm).
Proof.
  intros sv k host nm [N1 N2] [Hnh Hfr]. cbn [xs_sv] in Hfr.
  set (ss := mkSession k host nm empty_matcher default_max_items None []).
  assert (Hi : idents (attach sv k host nm) = idents sv ++ [sident ss]).
  { transitivity (map sident (sv_sessions sv ++ [ss])); [|unfold idents; now rewrite map_app].
    apply idents_of_params, attach_params. }
  unfold names_ok. rewrite Hi. split.
  - rewrite map_app. cbn [map sident snd ss s_name]. apply NoDup_app_single; [exact N1|].
    intros Hin. apply in_map_iff in Hin as [c [Hc1 Hc2]]. unfold idents in Hc2. apply in_map_iff in Hc2 as [x [Hx1 Hx2]].
    destruct (Hfr x Hx2) as [H1 _]. apply H1. rewrite <- Hc1, <- Hx1. reflexivity.
  - intros p q Hp Hq. apply in_app_iff in Hp, Hq. cbn [In] in Hp, Hq.
    destruct Hp as [Hp|[Hp|[]]], Hq as [Hq|[Hq|[]]].
    + now apply N2.
    + subst q. cbn [sident fst snd ss s_host]. unfold idents in Hp. apply in_map_iff in Hp as [x [Hx1 Hx2]].
      destruct (Hfr x Hx2) as [_ [H2 _]]. rewrite <- Hx1. exact H2.
    + subst p. cbn [sident fst snd ss s_name]. unfold idents in Hq. apply in_map_iff in Hq as [x [Hx1 Hx2]].
      destruct (Hfr x Hx2) as [_ [_ H3]]. rewrite <- Hx1. cbn [sident fst snd]. congruence.
    + subst p q. exact Hnh.
Qed.

Lemma names_ok_clear_ducks : forall xs, names_ok (xs_sv xs) -> names_ok (xs_sv (clear_ducks fx xs)).
Proof. intros xs. apply clear_ducks_keeps. intros sv d. apply names_ok_detach. Qed.

Lemma names_ok_xstep : forall ev xs, names_ok (xs_sv xs) -> xnm_event xs ev -> names_ok (xs_sv (xstep fx xs ev)).
Proof.
  intros [k host nm bits|k|k c] xs H Hn; cbn [xstep].
  - destruct (get_session _ _); [exact H|]. cbn [xs_sv xattach]. apply names_ok_attach; [exact H|exact Hn].
  - cbn [xs_sv xdetach]. now apply names_ok_detach.
  - destruct (get_session (xs_sv xs) k) as [a|] eqn:Ha; [|exact H]. cbv zeta. apply names_ok_clear_ducks. cbn [xs_sv with_sv].
    apply (names_ok_idents (xs_sv (xhandle fx 0 xs k c))); [apply all_params_idents, push_all_same|]. now apply (xhandle_keeps c 0 xs k).
Qed.

(* ------------------------------------------------------------------ one turn *)

Definition ev_of (ev : xevent) : sid := match ev with XAttach k _ _ _ => k | XDetach k => k | XCmd k _ => k end.

(* s is never granted PR_PRIVILEGE_KICK *)
Definition ev_nokick (ev : xevent) : Prop :=
  match ev with XAttach k _ _ bits => k = s -> N.testbit bits c_PR_PRIVILEGE_KICK = false | _ => True end.

Lemma duck_rel_filter : forall dF dE k, duck_rel s dF dE ->
  duck_rel s (filter (fun d => negb (N.eqb d k)) dF) (filter (fun d => negb (N.eqb d k)) dE).
Proof.
  intros dF dE k [D1 [D2 D3]]. split; [now apply NoDup_filter|]. split; [now apply NoDup_filter|].
  intros j. rewrite !filter_In, D3. tauto.
Qed.

Lemma duck_rel_nil_l : forall dE, duck_rel s [] dE -> dE = [].
Proof. intros [|k dE] [_ [_ D3]]; [reflexivity|]. destruct (proj1 (D3 k) (or_introl eq_refl)) as [[] _]. Qed.

Lemma erased_wf_event : forall XF XE ev, rel_sess s (xs_sv XF) (xs_sv XE) -> xwf_event XF ev -> xwf_event XE ev.
Proof.
  intros XF XE [t host nm bits|t|t c] R Hwf; cbn [xwf_event] in *; [|exact I|exact I].
  intros x Hx Hd. unfold rel_sess, all_params in R.
  assert (Hin : In (sparams x) (map sparams (others s (sv_sessions (xs_sv XF))))) by (rewrite <- R; now apply in_map).
  apply in_map_iff in Hin as [y [Hy1 Hy2]]. unfold others in Hy2. apply filter_In in Hy2 as [Hy2 _].
  apply (Hwf y Hy2). apply sparams_parts in Hy1 as [_ [H2 [H3 _]]]. unfold session_dir in *. congruence.
Qed.

Lemma xstep_keeps : forall ev xs B, small (B + xev_budget ev) -> inv B (xs_sv xs) -> xwf_event xs ev ->
  inv (B + xev_budget ev) (xs_sv (xstep fx xs ev)) /\ (hosts_ok (xs_sv xs) -> hosts_ok (xs_sv (xstep fx xs ev))) /\
  (names_ok (xs_sv xs) -> xnm_event xs ev -> names_ok (xs_sv (xstep fx xs ev))).
Proof.
  intros ev xs B HB I Hwf. split; [now apply (xstep_inv fx guard_on)|]. split; [now apply (hosts_ok_xstep fx guard_on ev xs B)|apply names_ok_xstep].
Qed.

(* a turn for another session, on both sides *)
Lemma xstep_other : forall ev XF XE B, small (B + xev_budget ev) -> good B (xs_sv XF) (xs_sv XE) ->
  xrel XF XE -> ev_of ev <> s -> xwf_event XF ev -> xnm_event XF ev ->
  xrel (xstep fx XF ev) (xstep fx XE ev) /\ good (B + xev_budget ev) (xs_sv (xstep fx XF ev)) (xs_sv (xstep fx XE ev)).
Proof.
  intros ev XF XE B HB G X Ht Hwf Hnm. pose proof G as (IF & IE & HF & HE & NF). pose proof X as [R [P [D K]]]. split.
  2:{ destruct (xstep_keeps ev XF B HB IF Hwf) as [I1 [H1 N1]].
      destruct (xstep_keeps ev XE B HB IE (erased_wf_event XF XE ev (proj2 R) Hwf)) as [I2 [H2 _]].
      exact (conj I1 (conj I2 (conj (H1 HF) (conj (H2 HE) (N1 NF Hnm))))). }
  destruct ev as [t host nm bits|t|t c]; cbn [ev_of] in Ht; pose proof (rel_get_session s _ _ t (proj2 R) Ht) as Hg.
  - (* arrival *)
    cbn [xstep]. destruct (get_session (xs_sv XF) t) as [a|] eqn:Ha; destruct (get_session (xs_sv XE) t) as [a'|] eqn:Ha'; try contradiction; [exact X|].
    unfold xattach. split; [|split; [|split; [exact D|]]]; cbn [xs_sv xs_priv xs_ducks].
    + apply attach_sim; [exact R|exact Ht|]. cbn [xwf_event] in Hwf. unfold sdir.
      destruct (get_session (xs_sv XF) s) as [ss|] eqn:Hss; [|reflexivity]. cbn [option_map hidden].
      destruct (is_prefix (session_dir ss) [host; nm]) eqn:E0; [|reflexivity]. exfalso.
      apply (Hwf ss); [apply find_session_some in Hss; tauto|]. apply is_prefix_same_length; [exact E0|reflexivity].
    + destruct (N.eqb bits 0); [exact P|]. rewrite priv_remove_app_other by exact Ht. now rewrite P.
    + unfold nokick_s. cbn [xs_priv]. destruct (N.eqb bits 0); [exact K|]. apply nokick_s_app; [exact K|]. intros ->. contradiction.
  - (* departure *)
    cbn [xstep]. unfold xdetach. split; [|split; [|split]]; cbn [xs_sv xs_priv xs_ducks].
    + now apply (detach_sim fx guard_on s B).
    + rewrite priv_remove_comm. now rewrite P.
    + now apply duck_rel_filter.
    + now apply (nokick_s_filter (fun j => negb (N.eqb j t))).
  - (* a command *)
    cbn [xstep xev_budget] in *.
    destruct (get_session (xs_sv XF) t) as [a|] eqn:Ha; destruct (get_session (xs_sv XE) t) as [a'|] eqn:Ha'; try contradiction; [|exact X].
    cbv zeta. pose proof (xhandle_sim c 0 XF XE t B HB G X Ht) as [R1 [P1 [D1 K1]]].
    destruct (good_push _ _ _ (xhandle_good c 0 XF XE t B HB G)) as (IF1 & IE1 & _).
    set (XF1 := with_sv (xhandle fx 0 XF t c) (push_all (xs_sv (xhandle fx 0 XF t c)))).
    set (XE1 := with_sv (xhandle fx 0 XE t c) (push_all (xs_sv (xhandle fx 0 XE t c)))).
    destruct (clear_ducks_sim fx guard_on s (B + xcmd_budget c) XF1 XE1 HB IF1 IE1) as [R2 P2]; [|exact P1|exact D1|].
    + cbn [XF1 XE1 xs_sv with_sv]. eapply rel_same_state; [apply push_all_same|apply push_all_same|exact R1].
    + split; [exact R2|]. split; [exact P2|]. rewrite !clear_ducks_none. split; [apply duck_rel_nil|].
      unfold nokick_s, clear_ducks. rewrite priv_fold_xdetach. apply (nokick_s_filter (fun j => negb (sid_mem j (xs_ducks XF1)))). exact K1.
Qed.

(* a turn for s itself: the erased side stands still *)
Lemma xstep_self : forall ev XF XE B, inv B (xs_sv XF) -> xrel XF XE -> xs_ducks XF = [] -> ev_of ev = s -> xwf_event XF ev -> ev_nokick ev ->
  xrel (xstep fx XF ev) XE.
Proof.
  intros [t host nm bits|t|t c] XF XE B IF X D0 Ht Hwf Hnk; cbn [ev_of] in Ht; subst t; pose proof X as [R [P [D K]]].
  - cbn [xstep]. destruct (get_session (xs_sv XF) s) as [a|] eqn:Ha; [exact X|].
    unfold xattach. split; [|split; [|split; [exact D|]]]; cbn [xs_sv xs_priv xs_ducks].
    + now apply (attach_self s B).
    + destruct (N.eqb bits 0); [exact P|]. now rewrite priv_remove_app_self.
    + cbn [ev_nokick] in Hnk. unfold nokick_s. cbn [xs_priv]. destruct (N.eqb bits 0); [exact K|]. now apply nokick_s_app.
  - cbn [xstep]. unfold xdetach. split; [|split; [|split]]; cbn [xs_sv xs_priv xs_ducks].
    + destruct (get_session (xs_sv XF) s) as [a|] eqn:Ha; [now apply (detach_self fx guard_on s B _ _ a)|]. unfold detach. now rewrite Ha.
    + now rewrite priv_remove_idem.
    + rewrite D0. rewrite D0 in D. exact D.
    + now apply (nokick_s_filter (fun j => negb (N.eqb j s))).
  - cbn [xstep]. destruct (get_session (xs_sv XF) s) as [a|] eqn:Ha; [|exact X]. cbv zeta.
    pose proof (xhandle_xframe fx c 0 XF s a Ha) as [Fr [Pr _]].
    destruct (xhandle_self_quiet c 0 XF K) as [Dk Kk].
    rewrite clear_ducks_nil by (cbn [xs_ducks with_sv]; congruence).
    split; [|split; [|split]]; cbn [xs_sv xs_priv xs_ducks with_sv].
    + apply (rel_frame s (xs_sv XF) _ _ a); [exact R|exact Ha|]. eapply frame_trans; [exact Fr|apply same_state_frame, push_all_same].
    + now rewrite Pr.
    + now rewrite Dk.
    + exact Kk.
Qed.

(* ------------------------------------------------------------------ whole histories *)

(* the history with everything s did (arriving, commands, leaving) taken out *)
Definition erase (evs : list xevent) : list xevent := filter (fun ev => negb (N.eqb (ev_of ev) s)) evs.

Theorem sim_run : forall evs XF XE B, small (B + xrun_budget evs) -> good B (xs_sv XF) (xs_sv XE) -> xrel XF XE -> xs_ducks XF = [] ->
  xwf_run fx XF evs -> xnm_run XF evs -> Forall ev_nokick evs ->
  xrel (xrun fx evs XF) (xrun fx (erase evs) XE) /\
  good (B + xrun_budget evs) (xs_sv (xrun fx evs XF)) (xs_sv (xrun fx (erase evs) XE)).
Proof.
  induction evs as [|ev evs IH]; intros XF XE B HB G X D0 Hwf Hnm Hnk; cbn [xrun fold_left erase filter xrun_budget] in *.
  - rewrite Nat.add_0_r. now split.
  - destruct Hwf as [Hw1 Hw2]. destruct Hnm as [Hm1 Hm2]. inversion Hnk as [|? ? Hn1 Hn2]; subst.
    assert (HBe : small (B + xev_budget ev)) by (eapply small_le; [|exact HB]; lia).
    pose proof (xstep_no_ducks fx XF ev D0) as D0'. rewrite Nat.add_assoc.
    destruct (N.eqb (ev_of ev) s) eqn:Es; cbn [negb].
    + apply N.eqb_eq in Es. pose proof G as (IF & IE & HF & HE & NF). destruct (xstep_keeps ev XF B HBe IF Hw1) as [I1 [H1 N1]].
      apply (IH _ _ (B + xev_budget ev)); auto; [now rewrite <- Nat.add_assoc| |now apply (xstep_self ev XF XE B)].
      assert (IE' : inv (B + xev_budget ev) (xs_sv XE)) by (apply (inv_weaken B); [lia|exact IE]).
      exact (conj I1 (conj IE' (conj (H1 HF) (conj HE (N1 NF Hm1))))).
    + apply N.eqb_neq in Es. cbn [fold_left]. destruct (xstep_other ev XF XE B HBe G X Es Hw1 Hm1) as [X' G'].
      apply (IH _ _ (B + xev_budget ev)); auto. now rewrite <- Nat.add_assoc.
Qed.

Lemma xrel_empty : xrel empty_xserver empty_xserver.
Proof.
  split; [split; [reflexivity|reflexivity]|]. split; [reflexivity|]. split; [apply duck_rel_nil|]. apply N.bits_0.
Qed.

Lemma good_empty : good 0 (xs_sv empty_xserver) (xs_sv empty_xserver).
Proof.
  assert (H0 : hosts_ok (xs_sv empty_xserver)) by (intros n []).
  refine (conj empty_inv (conj empty_inv (conj H0 (conj H0 (conj _ _))))); [constructor|intros p q []].
Qed.

(* the whole run with s's departure at its end, against the erased run *)
Lemma sim_whole : forall evs,
  small (xrun_budget evs) -> xwf_run fx empty_xserver evs -> xnm_run empty_xserver evs -> Forall ev_nokick evs ->
  let XF := xstep fx (xrun fx evs empty_xserver) (XDetach s) in
  let XE := xrun fx (erase evs) empty_xserver in
  xrel XF XE /\ good (xrun_budget evs) (xs_sv XF) (xs_sv XE).
Proof.
  intros evs HB Hwf Hnm Hnk XF XE.
  destruct (sim_run evs empty_xserver empty_xserver 0 HB good_empty xrel_empty eq_refl Hwf Hnm Hnk) as [X G]. fold XE in X, G.
  cbn [Nat.add] in G. pose proof G as (IF & IE & HF & HE & NF).
  assert (HB0 : small (xrun_budget evs + xev_budget (XDetach s))) by (cbn [xev_budget]; now rewrite Nat.add_0_r).
  destruct (xstep_keeps (XDetach s) _ _ HB0 IF I) as [I1 [H1 N1]]. cbn [xev_budget] in I1. rewrite Nat.add_0_r in I1.
  split; [exact (xstep_self (XDetach s) _ XE _ IF X (xrun_no_ducks fx evs empty_xserver eq_refl) eq_refl I I)|].
  exact (conj I1 (conj IE (conj (H1 HF) (conj HE (N1 NF I))))).
Qed.

Lemma others_none : forall l, find_session l s = None -> others s l = l.
Proof.
  induction l as [|x l IH]; intros H; [reflexivity|]. cbn in *. destruct (N.eqb (s_id x) s); [discriminate|]. cbn. f_equal. now apply IH.
Qed.

(* once s has gone, the relation is equality of what it compares *)
Lemma rel_gone : forall B F E, inv B F -> rel s F E -> get_session F s = None ->
  body (sv_tree F) = body (sv_tree E) /\ all_params F = all_params E.
Proof.
  intros B F E IF [R1 R2] Hnone. unfold sdir in R1. rewrite Hnone in R1. unfold rel_tree in R1. cbn [option_map] in R1. split.
  - rewrite R1. unfold body. rewrite (filter_ext (vis None) nonhost) by (intros n; apply andb_true_r).
    symmetry. rewrite <- map_id. apply map_ext_in. intros n Hn. apply filter_In in Hn as [Hn _].
    destruct (inv_marks _ _ _ IF n Hn) as [Hok Hget]. unfold strip. destruct n as [p d tb]. cbn [n_path n_data n_subs] in *. f_equal.
    apply tbl_without_absent. intros Hin. pose proof (tbl_in_get_pos _ _ Hok Hin) as Hpos. rewrite Hget in Hpos.
    unfold count_for in Hpos. rewrite Hnone in Hpos. lia.
  - unfold rel_sess in R2. rewrite R2. unfold all_params. f_equal. symmetry. now apply others_none.
Qed.

Lemma detach_gone : forall sv, get_session (detach fx sv s) s = None.
Proof.
  intros sv. unfold detach. destruct (get_session sv s) eqn:E0; [|exact E0]. unfold get_session. cbn [sv_sessions]. apply find_session_filter_self.
Qed.

(* AS IF NEVER.  Take any history evs in which s is never granted PR_PRIVILEGE_KICK (other sessions may hold it and may kick
   anybody, s included; sessions arrive under fresh (host, id) pairs and fresh names; fewer than 2^31-1 subscription strings
   in total), let s's connection end after it, and compare with the history in which s never arrived, sent or left:
     * below host level the two trees are the same list of nodes: same paths, same payloads, same order (= child iteration
       order), same subscriber tables;
     * the sessions are the same, in the same order, with the same identity, subscriptions and update limits;
     * the privilege tables are the same and nobody is marked for removal.
   (Host nodes: see [as_if_never_hosts].)  What the others were sent in the meantime is of course not compared. *)
Theorem as_if_never : forall evs,
  small (xrun_budget evs) -> xwf_run fx empty_xserver evs -> xnm_run empty_xserver evs -> Forall ev_nokick evs ->
  let XF := xstep fx (xrun fx evs empty_xserver) (XDetach s) in
  let XE := xrun fx (erase evs) empty_xserver in
  body (sv_tree (xs_sv XF)) = body (sv_tree (xs_sv XE)) /\
  all_params (xs_sv XF) = all_params (xs_sv XE) /\
  xs_priv XF = xs_priv XE /\ xs_ducks XF = [] /\ xs_ducks XE = [].
Proof.
  intros evs HB Hwf Hnm Hnk XF XE.
  destruct (sim_whole evs HB Hwf Hnm Hnk) as [[R [P [D _]]] (IF & _)]. fold XF in R, P, D, IF. fold XE in R, P, D.
  destruct (rel_gone _ _ _ IF R (detach_gone _)) as [H1 H2].
  assert (DF : xs_ducks XF = []) by (unfold XF; cbn [xstep xs_ducks xdetach]; now rewrite (xrun_no_ducks fx evs empty_xserver eq_refl)).
  split; [exact H1|]. split; [exact H2|]. split; [|split; [exact DF|rewrite DF in D; now apply duck_rel_nil_l]].
  rewrite <- P. unfold XF. cbn [xstep xs_priv xdetach]. now rewrite priv_remove_idem.
Qed.

(* two states with the same sessions (identity, subscriptions) that both satisfy the invariants agree on their host nodes *)
Lemma hosts_agree : forall B A Bv h, inv B A -> inv B Bv -> hosts_ok A -> hosts_ok Bv -> all_params A = all_params Bv ->
  match find_node (sv_tree A) [h], find_node (sv_tree Bv) [h] with
  | Some a, Some b => n_data a = n_data b /\ forall k, tbl_get (n_subs a) k = tbl_get (n_subs b) k
  | None, None => True
  | _, _ => False
  end.
Proof.
  intros B A Bv h IA IB HA HB Hp.
  assert (Hhost : forall (X Y : server) n, inv B Y -> hosts_ok X -> all_params X = all_params Y ->
                  find_node (sv_tree X) [h] = Some n -> has_node (sv_tree Y) [h] = true).
  { intros X Y n IY HX Hxy Hf. apply find_node_some in Hf as [Hin Hpn].
    destruct (HX n Hin) as [_ [x [Hx1 Hx2]]]; [now rewrite Hpn|].
    unfold all_params in Hxy. assert (Hi : In (sparams x) (map sparams (sv_sessions Y))) by (rewrite <- Hxy; now apply in_map).
    apply in_map_iff in Hi as [y [Hy1 Hy2]]. apply sparams_parts in Hy1 as [_ [Hh _]].
    pose proof (host_of_session B Y y IY Hy2) as Hn. rewrite Hpn in Hx2. injection Hx2 as Hx2. now rewrite Hh, Hx2 in Hn. }
  destruct (find_node (sv_tree A) [h]) as [a|] eqn:Ea; destruct (find_node (sv_tree Bv) [h]) as [b|] eqn:Eb.
  - apply find_node_some in Ea as [Ia Pa]. apply find_node_some in Eb as [Ib Pb].
    destruct (HA a Ia) as [Da _]; [now rewrite Pa|]. destruct (HB b Ib) as [Db _]; [now rewrite Pb|].
    split; [congruence|]. intros k.
    destruct (inv_marks _ _ _ IA a Ia) as [_ Ga]. destruct (inv_marks _ _ _ IB b Ib) as [_ Gb]. rewrite Ga, Gb, Pa, Pb.
    unfold count_for, get_session. pose proof (find_session_params (sv_sessions Bv) (sv_sessions A) k Hp) as Hc.
    destruct (find_session (sv_sessions Bv) k) as [y|], (find_session (sv_sessions A) k) as [x|]; try contradiction; [|reflexivity].
    apply sparams_parts in Hc as [_ [_ [_ [Hs _]]]]. now rewrite Hs.
  - pose proof (Hhost A Bv a IB HA Hp Ea) as Hn. unfold has_node in Hn. rewrite Eb in Hn. discriminate.
  - pose proof (Hhost Bv A b IA HB (eq_sym Hp) Eb) as Hn. unfold has_node in Hn. rewrite Ea in Hn. discriminate.
  - exact I.
Qed.

(* AS IF NEVER, host level: the two states have the same host nodes, with the same (empty) payload and the same subscriber
   counts for every session.  (A host node's position among its siblings is the one thing that may differ: the run without s
   may have created it later.) *)
Theorem as_if_never_hosts : forall evs,
  small (xrun_budget evs) -> xwf_run fx empty_xserver evs -> xnm_run empty_xserver evs -> Forall ev_nokick evs ->
  let XF := xstep fx (xrun fx evs empty_xserver) (XDetach s) in
  let XE := xrun fx (erase evs) empty_xserver in
  forall h,
  match find_node (sv_tree (xs_sv XF)) [h], find_node (sv_tree (xs_sv XE)) [h] with
  | Some a, Some b => n_data a = n_data b /\ forall k, tbl_get (n_subs a) k = tbl_get (n_subs b) k
  | None, None => True
  | _, _ => False
  end.
Proof.
  intros evs HB Hwf Hnm Hnk XF XE h.
  destruct (as_if_never evs HB Hwf Hnm Hnk) as [_ [Hp _]]. destruct (sim_whole evs HB Hwf Hnm Hnk) as [_ (IF & IE & HF & HE & _)].
  now apply (hosts_agree _ _ _ h IF IE HF HE Hp).
Qed.

End AsIf.
