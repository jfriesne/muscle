(* Refl/BoundedProofs.v -- C07: fuel adequacy and meaning of the list-editing loops of Refl/Bounded.v
   (JettisonOutgoingResults, PushSubscriptionMessages) and of the dispatch, the event-loop turn and a history: with
   enough fuel they return their fuel-free meaning (Refl/BoundedSpec.v), and with any fuel they return nothing else
   ([returns], defined here). *)
From Coq Require Import List NArith ZArith Bool Arith Lia.
From Muscle Require Import Refl.Base Refl.Matcher Refl.Session Refl.Server Refl.Bounded Refl.BoundedSpec.
Import ListNotations.

Lemma remove_nth_length_lt : forall (A : Type) (n : nat) (l : list A),
  n < length l -> length (remove_nth n l) = length l - 1.
Proof.
  intros A n l Hn. unfold remove_nth.
  rewrite app_length, firstn_length, skipn_length. lia.
Qed.

Lemma remove_nth_out_of_range : forall (A : Type) (n : nat) (l : list A),
  length l <= n -> remove_nth n l = l.
Proof.
  intros A n l Hn. unfold remove_nth.
  rewrite firstn_all2 by lia. rewrite skipn_all2 by lia. apply app_nil_r.
Qed.

Lemma remove_nth_app : forall (A : Type) (pre : list A) (x : A) (suf : list A),
  remove_nth (length pre) (pre ++ x :: suf) = pre ++ suf.
Proof.
  intros A pre x suf. unfold remove_nth. induction pre as [|a pre IH]; [reflexivity|].
  cbn [length app firstn skipn] in *. rewrite IH. reflexivity.
Qed.

Lemma replace_nth_app : forall (A : Type) (pre : list A) (x y : A) (suf : list A),
  replace_nth (length pre) (pre ++ x :: suf) y = pre ++ y :: suf.
Proof.
  intros A pre x y suf. induction pre as [|a pre IH]; simpl.
  - reflexivity.
  - rewrite IH. reflexivity.
Qed.

Lemma nth_error_app_len : forall (A : Type) (pre : list A) (x : A) (suf : list A),
  nth_error (pre ++ x :: suf) (length pre) = Some x.
Proof.
  intros A pre x suf. rewrite nth_error_app2 by lia. rewrite Nat.sub_diag. reflexivity.
Qed.

Lemma nth_error_app_end : forall (A : Type) (pre : list A),
  nth_error pre (length pre) = None.
Proof. intros A pre. apply nth_error_None. lia. Qed.

Lemma list_sum_cons : forall a l, list_sum (a :: l) = a + list_sum l.
Proof. reflexivity. Qed.

Lemma list_sum_le : forall (A : Type) (f : A -> nat) (l : list A) (x : A), In x l -> f x <= list_sum (map f l).
Proof.
  intros A f l x. induction l as [|a l IH]; intros H; [contradiction|]. cbn [map]. rewrite list_sum_cons.
  destruct H as [->|H]; [lia|]. specialize (IH H). lia.
Qed.

Section Proofs.
Context {M : MatchOps}.

Lemma qweight_ge : forall (q : list omsg) (x : omsg), In x q -> omsg_weight x <= qweight q.
Proof.
  intros q x Hin. unfold qweight. pose proof (proj1 (list_max_le _ _) (Nat.le_refl (list_max (map omsg_weight q)))) as H.
  rewrite Forall_forall in H. apply H, in_map, Hin.
Qed.

Lemma sets_weight_ge : forall (fs : list (path * list payload)) (p : path) (vs : list payload),
  In (p, vs) fs -> length vs <= sets_weight fs.
Proof. intros fs p vs Hin. exact (list_sum_le _ (fun pv => length (snd pv)) fs (p, vs) Hin). Qed.

(* [o] yields [v] whenever [ok] holds, and never yields anything else: fuel adequacy and "a partial function of its
   meaning" in one statement, so that each loop is analysed once *)
Definition returns {B : Type} (o : option B) (ok : Prop) (v : B) : Prop :=
  (ok -> o = Some v) /\ (forall r, o = Some r -> r = v).

Lemma returns_some : forall (B : Type) (ok : Prop) (v : B), returns (Some v) ok v.
Proof. intros B ok v. split; [reflexivity|]. intros r H. inversion H. reflexivity. Qed.

Lemma returns_none : forall (B : Type) (ok : Prop) (v : B), ~ ok -> returns None ok v.
Proof. intros B ok v H. split; [intros Hok; contradiction|discriminate]. Qed.

Lemma returns_weaken : forall (B : Type) (o : option B) (ok ok' : Prop) (v : B),
  returns o ok v -> (ok' -> ok) -> returns o ok' v.
Proof. intros B o ok ok' v [H1 H2] H. split; [intros Hok; apply H1, H, Hok|exact H2]. Qed.

Global Arguments returns_weaken {B o ok ok' v}.

Lemma returns_bind : forall (B C : Type) (o : option B) (k : B -> option C) (ok1 ok2 : Prop) (v : B) (w : C),
  returns o ok1 v -> returns (k v) ok2 w ->
  returns (match o with Some x => k x | None => None end) (ok1 /\ ok2) w.
Proof.
  intros B C o k ok1 ok2 v w [H1 H2] [K1 K2]. split.
  - intros [Ha Hb]. rewrite (H1 Ha). exact (K1 Hb).
  - intros r Hr. destruct o as [x|]; [|discriminate]. rewrite (H2 x eq_refl) in Hr. exact (K2 r Hr).
Qed.

(* `i = 0; while (i < n) {if (keep(l[i])) i++; else remove(l, i);}` -- any function with this unfolding filters the part
   of the list from i on, in "items left + 1" iterations *)
Lemma filter_loop_returns : forall (A : Type) (keep : A -> bool) (F : nat -> list A -> nat -> option (list A)),
  (forall l n, F 0 l n = None) ->
  (forall f l n, F (S f) l n = match nth_error l n with
                               | None => Some l
                               | Some x => if keep x then F f l (S n) else F f (remove_nth n l) n
                               end) ->
  forall suf pre fuel, returns (F fuel (pre ++ suf) (length pre)) (length suf < fuel) (pre ++ filter keep suf).
Proof.
  intros A keep F F0 FS suf. induction suf as [|x suf IH]; intros pre [|f];
    try (rewrite F0; apply returns_none; lia); rewrite FS.
  - cbn [filter]. rewrite app_nil_r, nth_error_app_end. apply returns_some.
  - rewrite nth_error_app_len. cbn [filter]. destruct (keep x).
    + specialize (IH (pre ++ [x]) f). rewrite <- app_assoc, app_length, Nat.add_1_r in IH. rewrite <- app_assoc in IH.
      apply (returns_weaken IH), Nat.succ_lt_mono.
    + rewrite remove_nth_app. apply (returns_weaken (IH pre f)), Nat.succ_lt_mono.
Qed.

Lemma jett_removed_returns : forall (m : matcher) (rs : list path) (fuel : nat),
  returns (jett_removed m fuel rs 0) (length rs < fuel) (filter (keep_removed m) rs).
Proof.
  intros m rs fuel. apply (filter_loop_returns _ (keep_removed m) (jett_removed m)) with (pre := []); [reflexivity|].
  intros f l n. cbn [jett_removed]. unfold keep_removed. destruct (nth_error l n) as [p|]; [|reflexivity].
  destruct (matches_path m p None); reflexivity.
Qed.

(* the per-field item loop, repaired (IDX = j) *)
Lemma jett_items_returns : forall (m : matcher) (i : nat) (p : path) (vs : list payload) (fuel : nat),
  returns (jett_items true m fuel i p vs 0) (length vs < fuel) (filter (keep_value m p) vs).
Proof.
  intros m i p vs fuel.
  apply (filter_loop_returns _ (keep_value m p) (fun fuel vs j => jett_items true m fuel i p vs j)) with (pre := []); [reflexivity|].
  intros f l n. cbn [jett_items]. unfold keep_value. destruct (nth_error l n) as [v|]; [|reflexivity].
  destruct (matches_path m p (Some v)); reflexivity.
Qed.

(* as found (IDX = i, the queue index): when the current value is to go and the field holds no more than i values,
   nothing is removed and j does not advance -- for every amount of fuel *)
Lemma jett_items_stuck : forall (m : matcher) (i : nat) (p : path) (vs : list payload) (j : nat) (v : payload),
  nth_error vs j = Some v -> matches_path m p (Some v) = true -> length vs <= i ->
  forall fuel, jett_items false m fuel i p vs j = None.
Proof.
  intros m i p vs j v Hn Hm Hi fuel. induction fuel as [|f IH].
  - reflexivity.
  - cbn [jett_items]. rewrite Hn, Hm. rewrite remove_nth_out_of_range by exact Hi. exact IH.
Qed.

Definition field_vals (m : matcher) (p : path) (vs : list payload) : list payload :=
  if N.ltb 0 (m_nfilters m) then filter (keep_value m p) vs
  else if matches_path m p None then [] else vs.

Lemma field_spec_vals : forall (m : matcher) (p : path) (vs : list payload),
  field_spec m (p, vs) = match field_vals m p vs with [] => [] | _ => [(p, field_vals m p vs)] end.
Proof. reflexivity. Qed.

Lemma jett_fields_returns : forall (m : matcher) (i : nat) (fuel : nat) (fs : list (path * list payload)),
  returns (jett_fields true m fuel i fs) (sets_weight fs < fuel) (flat_map (field_spec m) fs).
Proof.
  intros m i fuel fs. induction fs as [|[p vs] fs IH]; [apply returns_some|].
  cbn [jett_fields flat_map]. rewrite field_spec_vals.
  assert (Hcur : returns (if N.ltb 0 (m_nfilters m) then jett_items true m fuel i p vs 0
                          else if matches_path m p None then Some [] else Some vs) (length vs < fuel) (field_vals m p vs)).
  { unfold field_vals. destruct (N.ltb 0 (m_nfilters m)); [apply jett_items_returns|].
    destruct (matches_path m p None); apply returns_some. }
  eapply returns_weaken; [eapply returns_bind; [exact Hcur|eapply returns_bind; [exact IH|]]|].
  - destruct (field_vals m p vs); apply (returns_some _ True).
  - unfold sets_weight, list_sum. cbn [map snd fold_right]. lia.
Qed.

Lemma jett_msg_returns : forall (m : matcher) (i : nat) (fuel : nat) (d : ditems),
  returns (jett_msg true m fuel i d) (di_weight d < fuel) (msg_spec m d).
Proof.
  intros m i fuel d. unfold jett_msg, msg_spec.
  eapply returns_weaken; [eapply returns_bind; [apply jett_removed_returns|eapply returns_bind; [apply jett_fields_returns|]]|].
  - apply (returns_some _ True).
  - unfold di_weight. lia.
Qed.

Lemma qweight_app : forall a b, qweight (a ++ b) = Nat.max (qweight a) (qweight b).
Proof. intros a b. unfold qweight. rewrite map_app, list_max_app. reflexivity. Qed.

Lemma jett_queue_returns : forall (om : option matcher) (fuel : nat) (pre done : list omsg),
  returns (jett_queue true om fuel (length pre) (pre ++ done)) (qweight pre < fuel) (jq_spec om pre ++ done).
Proof.
  intros om fuel pre. induction pre as [|x pre IH] using rev_ind; intros done; [apply returns_some|].
  rewrite app_length, Nat.add_1_r. cbn [jett_queue].
  rewrite <- app_assoc. cbn [app]. rewrite nth_error_app_len.
  unfold jq_spec. rewrite flat_map_app. cbn [flat_map]. rewrite app_nil_r, <- app_assoc.
  assert (Hw : forall P : Prop, (qweight pre < fuel -> omsg_weight x < fuel -> P) -> qweight (pre ++ [x]) < fuel -> P).
  { intros P HP. rewrite qweight_app. unfold qweight at 2. cbn [map list_max fold_right]. intros H. apply HP; lia. }
  destruct x as [d|id roots|t|code what]; cbn [omsg_spec app];
    try (apply (returns_weaken (IH _)), Hw; auto).
  assert (Hd : returns (match om with Some m => jett_msg true m fuel (length pre) d | None => Some empty_di end)
                       (di_weight d < fuel) (match om with Some m => msg_spec m d | None => empty_di end)).
  { destruct om as [m|]; [apply jett_msg_returns|apply returns_some]. }
  eapply returns_weaken; [eapply returns_bind; [exact Hd|]|].
  - destruct (di_has_names _); [rewrite replace_nth_app|rewrite remove_nth_app]; apply IH.
  - apply Hw. intros H1 H2. split; [exact H2|exact H1].
Qed.

(* JettisonOutgoingResults, repaired: returns within fuel "heaviest queued Message + 1" and removes exactly what matches *)
Lemma jettison_results_returns : forall (om : option matcher) (fuel : nat) (q : list omsg),
  returns (jettison_results true om fuel q) (qweight q < fuel) (jq_spec om q).
Proof.
  intros om fuel q. unfold jettison_results.
  pose proof (jett_queue_returns om fuel q []) as H. rewrite !app_nil_r in H. exact H.
Qed.

Lemma jettison_results_fuel : forall (om : option matcher) (fuel : nat) (q : list omsg),
  qweight q < fuel -> exists q', jettison_results true om fuel q = Some q'.
Proof. intros om fuel q Hf. eexists. apply jettison_results_returns. exact Hf. Qed.

Lemma push_loop_returns : forall (fuel : nat) (sv : server), returns (push_loop fuel sv) (2 <= fuel) (push_all sv).
Proof.
  intros [|[|f]] sv; [apply returns_none; lia| |]; cbn [push_loop]; unfold push_all;
    destruct (sv_dirty sv); cbn [sv_dirty]; try apply returns_some. apply returns_none. lia.
Qed.

Lemma push_loop_spec : forall (fuel : nat) (sv : server), 2 <= fuel -> push_loop fuel sv = Some (push_all sv).
Proof. intros fuel sv. apply push_loop_returns. Qed.

Lemma bpush_returns : forall (fuel : nat) (b : bserver), returns (bpush fuel b) (2 <= fuel) (bpush_spec b).
Proof.
  intros fuel b. unfold bpush, bpush_spec.
  eapply returns_weaken; [eapply returns_bind; [apply push_loop_returns|apply (returns_some _ True)]|]. tauto.
Qed.

(* ------------------------------------------------------------------ induction over nested batches *)

Section BcmdInd.
Variable P : bcmd -> Prop.
Hypothesis HBase : forall c, P (BBase c).
Hypothesis HSup : forall flags items, P (BSetSup flags items).
Hypothesis HPing : forall t, P (BPing t).
Hypothesis HNoop : P BNoop.
Hypothesis HBounce : forall code what, P (BBounce code what).
Hypothesis HJR : forall keys, P (BJettResults keys).
Hypothesis HJT : forall ids, P (BJettTrees ids).
Hypothesis HGT : forall id keys, P (BGetTrees id keys).
Hypothesis HBatch : forall l, Forall P l -> P (BBatch l).

Fixpoint bcmd_ind' (c : bcmd) : P c :=
  match c with
  | BBase c0 => HBase c0
  | BSetSup flags items => HSup flags items
  | BPing t => HPing t
  | BNoop => HNoop
  | BBounce code what => HBounce code what
  | BJettResults keys => HJR keys
  | BJettTrees ids => HJT ids
  | BGetTrees id keys => HGT id keys
  | BBatch l =>
    HBatch l ((fix go (l : list bcmd) : Forall P l :=
                 match l with
                 | [] => Forall_nil P
                 | x :: r => Forall_cons x (bcmd_ind' x) (go r)
                 end) l)
  end.
End BcmdInd.

(* ------------------------------------------------------------------ the dispatch: fuel adequacy and meaning *)

(* with the repaired jettison loop, MessageReceivedFromGateway returns for every command in every state as soon as the
   fuel exceeds the weight of the heaviest outgoing Message a jettison pass meets (and 2, for the while-dirty loop);
   what it returns, with whatever fuel, is the fuel-free meaning [bhandle_spec] *)
Lemma bhandle_returns : forall (fx : fixes) (c : bcmd) (fuel nest : nat) (b : bserver) (s : sid),
  returns (bhandle fx true fuel nest b s c) (2 <= fuel /\ hpeak fx nest b s c < fuel) (bhandle_spec fx nest b s c).
Proof.
  intros fx c fuel. induction c as [c0|flags items|t| |code what|keys|ids|id keys|l IHl] using bcmd_ind';
    intros nest b s; cbn [bhandle bhandle_spec hpeak];
    (destruct (get_session (b_sv b) s); [|apply returns_some]); try apply returns_some.
  - eapply returns_weaken; [eapply returns_bind; [apply jettison_results_returns|apply (returns_some _ True)]|]. tauto.
  - destruct (Nat.ltb nest max_batch_nest); [|apply returns_some].
    revert b. induction IHl as [|c' r Hc' _ IHr]; intros b; [apply returns_some|].
    eapply returns_weaken; [eapply returns_bind; [apply Hc'|eapply returns_bind; [apply bpush_returns|apply IHr]]|]. lia.
Qed.

Lemma handler_fuel : forall (fx : fixes) (c : bcmd) (fuel nest : nat) (b : bserver) (s : sid),
  2 <= fuel -> hpeak fx nest b s c < fuel ->
  bhandle fx true fuel nest b s c = Some (bhandle_spec fx nest b s c).
Proof. intros fx c fuel nest b s Hf2 Hpk. apply bhandle_returns. split; assumption. Qed.

Lemma handler_returns : forall (fx : fixes) (c : bcmd) (nest : nat) (b : bserver) (s : sid),
  exists fuel0, forall fuel, fuel0 <= fuel -> exists b', bhandle fx true fuel nest b s c = Some b'.
Proof.
  intros fx c nest b s. exists (S (S (hpeak fx nest b s c))). intros fuel Hf.
  eexists. apply handler_fuel; lia.
Qed.

(* one turn of the event loop, for every event in every state *)
Lemma bstep_returns : forall (fx : fixes) (fuel : nat) (b : bserver) (ev : bevent),
  returns (bstep fx true fuel b ev) (2 <= fuel /\ speak fx b ev < fuel) (bstep_spec fx b ev).
Proof.
  intros fx fuel b ev. destruct ev as [s host nm|s|s bl|s c]; cbn [bstep bstep_spec speak]; try apply returns_some.
  - destruct (get_session (b_sv b) s); apply returns_some.
  - destruct (get_session (b_sv b) s); [|apply returns_some].
    eapply returns_weaken; [eapply returns_bind; [apply bhandle_returns|eapply returns_bind; [apply bpush_returns|apply (returns_some _ True)]]|].
    tauto.
Qed.

Lemma brun_returns : forall (fx : fixes) (fuel : nat) (evs : list bevent) (b : bserver),
  returns (brun fx true fuel evs b) (2 <= fuel /\ rpeak fx evs b < fuel) (brun_spec fx evs b).
Proof.
  intros fx fuel evs. induction evs as [|ev r IH]; intros b; [apply returns_some|].
  cbn [brun rpeak]. unfold brun_spec. cbn [fold_left].
  eapply returns_weaken; [eapply returns_bind; [apply bstep_returns|apply IH]|]. lia.
Qed.

Lemma server_step_total : forall (fx : fixes) (fuel : nat) (b : bserver) (ev : bevent),
  2 <= fuel -> speak fx b ev < fuel -> bstep fx true fuel b ev = Some (bstep_spec fx b ev).
Proof. intros fx fuel b ev Hf2 Hpk. apply bstep_returns. split; assumption. Qed.

Lemma server_run_total : forall (fx : fixes) (fuel : nat) (evs : list bevent) (b : bserver),
  2 <= fuel -> rpeak fx evs b < fuel -> brun fx true fuel evs b = Some (brun_spec fx evs b).
Proof. intros fx fuel evs b Hf2 Hpk. apply brun_returns. split; assumption. Qed.

(* ------------------------------------------------------------------ the sources at hand *)

(* the per-field item loop of the sources the check runs on passes the item index j to RemoveData (regenerated flag
   c_c07_jettison_removes_item_j): were the queue index i to come back, this lemma -- and with it the theorems about the
   code at hand -- would no longer check *)
Lemma code_jfix_true : code_jfix = true.
Proof. reflexivity. Qed.

Lemma code_step_total : forall (fuel : nat) (b : bserver) (ev : bevent),
  2 <= fuel -> speak code_fixes b ev < fuel ->
  bstep code_fixes code_jfix fuel b ev = Some (bstep_spec code_fixes b ev).
Proof. intros fuel b ev. rewrite code_jfix_true. apply server_step_total. Qed.

Lemma code_run_total : forall (fuel : nat) (evs : list bevent) (b : bserver),
  2 <= fuel -> rpeak code_fixes evs b < fuel ->
  brun code_fixes code_jfix fuel evs b = Some (brun_spec code_fixes evs b).
Proof. intros fuel evs b. rewrite code_jfix_true. apply server_run_total. Qed.

End Proofs.
