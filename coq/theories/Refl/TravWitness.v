(* Refl/TravWitness.v -- a small concrete instance of the external matching code (class MatchOps) that satisfies the
   laws the traversal theorems assume, the witness of finding F12 (the multi-pattern guard as found counts
   clause-count groups, not patterns), and non-trivial states satisfying the premises of the C05 theorems (tree_wf of a
   concrete tree is decided by tree_wfb). *)
From Coq Require Import List NArith Bool.
From Muscle Require Import Refl.Base Refl.Tree Refl.Matcher Refl.Traverse Refl.TravBase Refl.TraverseTheorems.
Import ListNotations.
Local Open Scope N_scope.

(* a clause is "*" (None) or the finite set of names it matches, flagged wildcard (true) or
   unique / list of unique values (false); a filter g accepts the payloads above g *)
Definition wclause := option (bool * list N).

Definition wclause_eqb (a b : wclause) : bool :=
  match a, b with
  | None, None => true
  | Some (w1, l1), Some (w2, l2) => Bool.eqb w1 w2 && path_eqb l1 l2
  | _, _ => false
  end.

Definition wmatch (c : wclause) (k : name) : bool :=
  match c with None => true | Some (_, l) => existsb (N.eqb k) l end.

Definition wkeys (c : wclause) : option (list name) :=
  match c with Some (false, l) => Some l | _ => None end.

#[global] Instance WOps : MatchOps := {|
  clause := wclause; clause_eqb := wclause_eqb; cmatch := wmatch; ckeys := wkeys; cstar := None;
  qfilter := N; fmatch := fun g p => N.ltb g p |}.

Lemma wkeys_sound : forall (c : clause) (ks : list name) (k : name), ckeys c = Some ks -> cmatch c k = true -> In k ks.
Proof.
  intros [[[|] l]|] ks k H Hm; cbn in H; try discriminate. inversion H; subst ks. cbn in Hm.
  apply existsb_exists in Hm. destruct Hm as [x [Hx E]]. apply N.eqb_eq in E. now subst.
Qed.

Lemma wkeys_complete : forall (c : clause) (ks : list name) (k : name), ckeys c = Some ks -> In k ks -> cmatch c k = true.
Proof.
  intros [[[|] l]|] ks k H Hin; cbn in H; try discriminate. inversion H; subst ks. cbn.
  apply existsb_exists. exists k. split; [assumption | apply N.eqb_refl].
Qed.

(* a decision procedure for tree_wf *)

Fixpoint nodup_paths (l : list path) : bool :=
  match l with [] => true | p :: r => negb (path_mem p r) && nodup_paths r end.

Definition parent_ok (t : tree) (n : node) : bool :=
  match n_path n with
  | [] => false
  | _ => match removelast (n_path n) with [] => true | pp => has_node t pp end
  end.

Definition tree_wfb (t : tree) : bool := nodup_paths (map n_path t) && forallb (parent_ok t) t.

Lemma nodup_paths_ok : forall l, nodup_paths l = true -> NoDup l.
Proof.
  induction l as [|p l IH]; intros H; [constructor|]. cbn in H. apply andb_true_iff in H. destruct H as [H1 H2].
  constructor; [|now apply IH]. apply negb_true_iff in H1. now apply path_mem_false.
Qed.

Lemma tree_wfb_ok : forall t, tree_wfb t = true -> tree_wf t.
Proof.
  intros t H. unfold tree_wfb in H. apply andb_true_iff in H. destruct H as [H1 H2].
  rewrite forallb_forall in H2. split; [now apply nodup_paths_ok|]. split.
  - intros n Hn E. specialize (H2 n Hn). unfold parent_ok in H2. rewrite E in H2. discriminate.
  - intros n p k Hn E. specialize (H2 n Hn). unfold parent_ok in H2. rewrite E in H2.
    rewrite removelast_last in H2. destruct (p ++ [k]) eqn:X; [destruct p; discriminate|].
    destruct p as [|a p]; [now left|]. right. unfold has_node in H2.
    destruct (find_node t (a :: p)) as [pn|] eqn:F; [|discriminate].
    apply find_node_some in F. now exists pn.
Qed.

(* the tree and the patterns of finding F12 *)

Definition jeremy := 1. Definition jenny := 2. Definition kate := 3. Definition kevin := 4. Definition joe := 5. Definition kim := 6.

Definition jstar : wclause := Some (true, [jeremy; jenny; joe]).     (* j* *)
Definition kstar : wclause := Some (true, [kate; kevin; kim]).       (* k* *)

Definition f12_tree : tree :=
  [mkNode [jeremy] 0 []; mkNode [jeremy; jenny] 0 []; mkNode [jeremy; kate] 0 [];
   mkNode [kevin] 0 []; mkNode [kevin; joe] 0 []; mkNode [kevin; kim] 0 []].

Definition f12_matcher : matcher := m_of_list [([jstar; kstar], None); ([kstar; jstar], None)].

Lemma f12_tree_wf : tree_wf f12_tree.
Proof. apply tree_wfb_ok. reflexivity. Qed.

Lemma f12_matcher_wf : matcher_wf f12_matcher.
Proof. apply m_of_list_wf. Qed.

(* with the guard as found (one clause-count GROUP) the traversal calls back on a node that
   PathMatcher::MatchesPath rejects: /jeremy/jenny matches j* at level 1 and, by the other pattern, j* at level 2 *)
Lemma traversal_refuted_with_group_count_guard_lemma :
  exists (t : tree) (m : matcher) (n : node),
    tree_wf t /\ matcher_wf m /\ In n (visits t m [] true false) /\ matches_path m (n_path n) (Some (n_data n)) = false.
Proof.
  exists f12_tree, f12_matcher, (mkNode [jeremy; jenny] 0 []).
  split; [apply f12_tree_wf|]. split; [apply f12_matcher_wf|]. split; vm_compute; tauto.
Qed.

(* the same traversal with the repaired guard (one PATTERN): exactly the two nodes MatchesPath accepts *)
Example f12_fixed_visits : map n_path (visits f12_tree f12_matcher [] true true) = [[jeremy; kate]; [kevin; joe]].
Proof. vm_compute. reflexivity. Qed.

Example f12_as_found_visits :
  map n_path (visits f12_tree f12_matcher [] true false) = [[jeremy; jenny]; [jeremy; kate]; [kevin; joe]; [kevin; kim]].
Proof. vm_compute. reflexivity. Qed.
