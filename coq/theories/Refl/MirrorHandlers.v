(* Refl/MirrorHandlers.v -- the subscriber invariant J through the handlers that do not touch the
   observer's own subscriptions: SETDATA, REMOVEDATA, a session's arrival and departure, and every
   command of another session; and node_frame, what the node handlers do to everything else (session
   records, pending Messages, the sender's own virtual mirror, payloads outside the subtree), announced or quiet. *)
From Coq Require Import List NArith ZArith Bool Arith Lia.
From Muscle Require Import Gen.Consts Refl.Base Refl.BaseProofs Refl.Tree Refl.TreeProofs Refl.Matcher Refl.Traverse
     Refl.TraverseFold Refl.Session Refl.Server Refl.ServerProofs Refl.Mirror Refl.MirrorServer Refl.MirrorSem
     Refl.MirrorSteps.
Import ListNotations.

Section Handlers.
Context {M : MatchOps} {L : MatchLaws M}.
Variable fx : fixes.
Hypothesis guard_on : fx_guard fx = true.
Variable mir : mirror.

Notation J := (J mir).
Notation V := (V mir).

Definition data_at (t : tree) (q : path) : option payload := option_map n_data (find_node t q).

Lemma expected_data : forall t t' ss q, data_at t' q = data_at t q -> expected t' ss q = expected t ss q.
Proof.
  intros t t' ss q H. rewrite !expected_exp_with. unfold data_at in H. now rewrite H.
Qed.

Lemma data_at_set_data : forall t p d q, q <> p -> data_at (set_data t p d) q = data_at t q.
Proof.
  intros t p d q Hq. unfold data_at, set_data. rewrite find_node_map_node by reflexivity.
  destruct (find_node t q) as [x|] eqn:Hx; [|reflexivity]. cbn [option_map].
  apply find_node_some in Hx as [_ Hx]. rewrite Hx.
  assert (path_eqb q p = false) as -> by (now apply path_eqb_neq). reflexivity.
Qed.

Lemma data_at_add : forall t nd q, q <> n_path nd -> data_at (add_node t nd) q = data_at t q.
Proof.
  intros t nd q Hq. unfold data_at. rewrite find_node_add. destruct (find_node t q); [reflexivity|].
  assert (path_eqb (n_path nd) q = false) as -> by (apply path_eqb_neq; congruence). reflexivity.
Qed.

Lemma data_at_remove : forall t p q, q <> p -> data_at (remove_node t p) q = data_at t q.
Proof.
  intros t p q Hq. unfold data_at. rewrite find_node_remove.
  assert (path_eqb p q = false) as -> by (apply path_eqb_neq; congruence). reflexivity.
Qed.

(* marking never touches a payload *)
Lemma data_at_adjust : forall t p s delta q, data_at (adjust_subs t p s delta) q = data_at t q.
Proof.
  intros t p s delta q. unfold data_at, adjust_subs. rewrite find_node_map_node by reflexivity.
  destruct (find_node t q) as [n|]; auto. cbn. destruct (path_eqb (n_path n) p); reflexivity.
Qed.

Lemma data_at_mark_gen : forall t m s delta q, data_at (mark_nodes fx t m s delta) q = data_at t q.
Proof.
  intros t m s delta q. unfold mark_nodes.
  apply (do_traversal_Q tree (continue_cb (fun acc n => adjust_subs acc (n_path n) s delta))
           (fun acc => data_at acc q = data_at t q)); auto.
  intros acc n H. unfold continue_cb. cbn [fst]. now rewrite data_at_adjust.
Qed.

Lemma subscribe_one_data : forall sv b sf q, data_at (sv_tree (subscribe_one fx sv b sf)) q = data_at (sv_tree sv) q.
Proof.
  intros sv b [sp f] q. unfold subscribe_one. cbn [fst snd].
  destruct (get_session sv b) as [bs|]; [|reflexivity].
  destruct (fix_path sp) as [|c fp'] eqn:Efp; [reflexivity|]. rewrite <- Efp.
  destruct (m_get (s_subs bs) (fix_path sp)) as [e|].
  - cbn [sv_tree upd_session].
    match goal with |- data_at (sv_tree ?X) q = _ => assert (Ht : sv_tree X = sv_tree sv) end.
    { destruct f, (e_flt e); try reflexivity; exact (proj1 (cqf_traversal_core fx _ _ _ _ _ _ _ _ sv)). }
    now rewrite Ht.
  - cbn [sv_tree set_tree upd_session]. apply data_at_mark_gen.
Qed.

Lemma unsubscribe_one_data : forall sv b sp q, data_at (sv_tree (unsubscribe_one fx sv b sp)) q = data_at (sv_tree sv) q.
Proof.
  intros sv b sp q. unfold unsubscribe_one. destruct (get_session sv b) as [ss|]; [|reflexivity].
  destruct (m_remove (s_subs ss) (fix_path sp)); [|reflexivity]. cbn [sv_tree set_tree upd_session]. apply data_at_mark_gen.
Qed.

Lemma fold_collect_in : forall (l : list node) acc p,
  In p (fold_left (fun acc n => if Nat.ltb session_depth (depth n) then n_path n :: acc else acc) l acc) ->
  In p acc \/ exists n, In n l /\ n_path n = p.
Proof.
  induction l as [|n l IH]; intros acc p H; cbn [fold_left] in H; [now left|].
  apply IH in H as [H|[n' [H1 H2]]]; [|right; exists n'; split; [now right|auto]].
  destruct (Nat.ltb session_depth (depth n)); [|now left].
  destruct H as [H|H]; [right; exists n; split; [now left|auto]|now left].
Qed.

Lemma remove_targets_below : forall t m root p,
  In p (do_traversal remove_cb t m root true (fx_guard fx) []) -> is_prefix root p = true.
Proof.
  intros t m root p Hp.
  rewrite (do_traversal_go (list path) remove_cb
             (fun acc n => if Nat.ltb session_depth (depth n) then n_path n :: acc else acc)) in Hp.
  - apply fold_collect_in in Hp as [[]|[n [H1 H2]]]. apply vtrav_below_root in H1 as [r [_ Hr]].
    apply is_prefix_spec. exists r. congruence.
  - intros acc n. unfold remove_cb. destruct (Nat.ltb session_depth (depth n)); eexists; split; eauto; lia.
Qed.

Lemma do_remove_data_J : forall B exc sv ss keys o,
  inv_x B exc sv -> pend_ok sv -> get_session sv (s_id ss) = Some ss -> J sv o ->
  J (do_remove_data fx sv ss keys false) o /\ pend_ok (do_remove_data fx sv ss keys false).
Proof.
  intros B exc sv ss keys o I Hpo Hss HJ. unfold do_remove_data.
  pose proof (remove_targets_below (sv_tree sv) (m_of_list keys) (session_dir ss)) as Hrs.
  revert Hrs. generalize (do_traversal remove_cb (sv_tree sv) (m_of_list keys) (session_dir ss) true (fx_guard fx) []).
  intros rs Hrs. cbn [negb].
  assert (Hgen : forall rs sv0, (forall p, In p rs -> is_prefix (session_dir ss) p = true) ->
            marks_ok sv0 -> pend_ok sv0 -> same_sess sv sv0 -> J sv0 o ->
            J (fold_left (fun sv' p => if has_node (sv_tree sv') p then remove_subtree sv' (s_id ss) p true else sv') rs sv0) o
            /\ pend_ok (fold_left (fun sv' p => if has_node (sv_tree sv') p then remove_subtree sv' (s_id ss) p true else sv') rs sv0)).
  { clear rs Hrs. induction rs as [|p rs IH]; intros sv0 Hrs Hmk0 Hpo0 Hs0 HJ0; cbn [fold_left]; auto.
    destruct (has_node (sv_tree sv0) p) eqn:Hh.
    - destruct (remove_subtree_J mir sv0 (s_id ss) p o Hmk0 Hpo0) as [H1 [H2 [H3 H4]]]; auto.
      + destruct (N.eq_dec o (s_id ss)) as [E|E]; [right|now left]. subst o. intros ss0 Hss0.
        destruct (get_session_sess sv sv0 (s_id ss) ss0 Hs0 Hss0) as [ss1 [Hss1 [_ Hdir]]].
        assert (ss1 = ss) by congruence. subst ss1. rewrite <- Hdir. apply Hrs. now left.
      + apply IH; auto; [intros q Hq; apply Hrs; now right|now apply (same_sess_trans sv sv0)].
    - apply IH; auto. intros q Hq. apply Hrs. now right. }
  apply Hgen; auto; [now apply (inv_marks_ok B exc)|reflexivity].
Qed.

Lemma set_data_node_loud : forall sv ss rel d flags, flag_set flags c_SETDATANODE_FLAG_QUIET = false ->
  set_data_node sv ss rel d flags
  = set_data_loop sv (s_id ss) (session_dir ss) rel d (flag_set flags c_SETDATANODE_FLAG_DONTCREATENODE)
                  (flag_set flags c_SETDATANODE_FLAG_DONTOVERWRITEDATA) false.
Proof. intros sv ss rel d flags H. unfold set_data_node. now rewrite H. Qed.

Lemma set_data_items_J : forall B items sv s flags o, small B ->
  flag_set flags c_SETDATANODE_FLAG_QUIET = false ->
  inv B sv -> pend_ok sv -> J sv o ->
  let sv' := fold_left (fun sv' it => match get_session sv' s with
                                      | Some ss' => match fst it with
                                                    | [] => sv'
                                                    | _ => set_data_node sv' ss' (fst it) (snd it) flags
                                                    end
                                      | None => sv'
                                      end) items sv in
  J sv' o /\ pend_ok sv'.
Proof.
  intros B. induction items as [|it items IH]; intros sv s flags o HB Hq I Hpo HJ; cbn [fold_left]; auto.
  destruct (get_session sv s) as [ss|] eqn:Hss; [|now apply IH].
  destruct (fst it) as [|k rel] eqn:Hit; [now apply IH|].
  assert (Hin : In ss (sv_sessions sv)) by (apply find_session_some in Hss; tauto).
  assert (Hid : s_id ss = s) by (apply find_session_some in Hss; tauto).
  rewrite <- Hit. rewrite (set_data_node_loud sv ss (fst it) (snd it) flags Hq). rewrite Hit.
  destruct (set_data_loop_J mir B [] (k :: rel) sv (s_id ss) (session_dir ss) (snd it)
              (flag_set flags c_SETDATANODE_FLAG_DONTCREATENODE) (flag_set flags c_SETDATANODE_FLAG_DONTOVERWRITEDATA) o HB I Hpo)
    as [H1 H2]; auto.
  - now apply (inv_dirs_exist B sv).
  - intros ss0 Hss0. rewrite Hid in Hss0. assert (ss0 = ss) by congruence. subst. apply is_prefix_refl.
  - apply IH; auto. apply (set_data_loop_inv B []); auto. now apply (inv_dirs_exist B sv).
Qed.

(* the observer's own record keeps its subscriptions and directory *)
Definition same_for (o : sid) (sv sv' : server) : Prop :=
  forall ss', get_session sv' o = Some ss' ->
  exists ss, get_session sv o = Some ss /\ s_subs ss = s_subs ss' /\ session_dir ss = session_dir ss'.

Lemma same_sess_for : forall o sv sv', same_sess sv sv' -> same_for o sv sv'.
Proof. intros o sv sv' H ss' Hss'. now apply (get_session_sess sv sv'). Qed.

(* the observer's business is its own record, its virtual mirror, and what it expects at foreign paths *)
Lemma J_frame_foreign : forall sv sv' o, same_for o sv sv' -> (forall q, V sv' o q = V sv o q) ->
  (forall ss, get_session sv o = Some ss -> forall q, own_node ss q = false ->
              expected (sv_tree sv') ss q = expected (sv_tree sv) ss q) ->
  J sv o -> J sv' o.
Proof.
  intros sv sv' o Hs HV He HJ ss' Hss' q Hown.
  destruct (Hs ss' Hss') as [ss [Hss [Hsub Hdir]]].
  assert (Hown0 : own_node ss q = false) by (now rewrite (own_node_dir ss ss' q Hdir)).
  rewrite HV, (HJ ss Hss q Hown0).
  f_equal. rewrite <- (He ss Hss q Hown0). apply expected_subs. exact Hsub.
Qed.

Lemma J_frame_local : forall sv sv' o, same_for o sv sv' ->
  (forall q, V sv' o q = V sv o q) -> (forall q, data_at (sv_tree sv') q = data_at (sv_tree sv) q) ->
  J sv o -> J sv' o.
Proof. intros sv sv' o Hs HV Hd. apply J_frame_foreign; auto. intros ss _ q _. apply expected_data, Hd. Qed.

Lemma J_frame : forall sv sv' o, same_sess sv sv' ->
  (forall q, V sv' o q = V sv o q) -> (forall q, data_at (sv_tree sv') q = data_at (sv_tree sv) q) ->
  J sv o -> J sv' o.
Proof. intros sv sv' o Hs. apply J_frame_local. now apply same_sess_for. Qed.

Lemma V_upd_keep : forall sv s f o q,
  (forall x, s_id (f x) = s_id x /\ s_out (f x) = s_out x /\ s_pending (f x) = s_pending x) ->
  V (upd_session sv s f) o q = V sv o q.
Proof.
  intros sv s f o q Hf. unfold V. rewrite get_session_upd by (intros x; apply Hf).
  destruct (N.eqb s o); auto. destruct (get_session sv o) as [ss|]; auto. cbn [option_map]. f_equal.
  unfold vm. destruct (Hf ss) as [_ [H1 H2]]. now rewrite H1, H2.
Qed.

Lemma get_session_upd_other : forall sv s f o, (forall x, s_id (f x) = s_id x) -> s <> o ->
  get_session (upd_session sv s f) o = get_session sv o.
Proof. intros sv s f o Hf Hne. rewrite get_session_upd by auto. apply N.eqb_neq in Hne. now rewrite Hne. Qed.

Lemma getdata_cb_other : forall sv b o acc n, b <> o ->
  (forall q', V (snd acc) o q' = V sv o q') -> forall q', V (snd (fst (getdata_cb b acc n))) o q' = V sv o q'.
Proof.
  intros sv b o [reply0 sv0] n Hne HQ. unfold getdata_cb. cbn [snd] in HQ.
  destruct (get_session sv0 b) as [ss|]; [|exact HQ].
  destruct (own_node ss (n_path n)); [exact HQ|].
  destruct (N.leb _ _); cbn [fst snd]; auto.
  intros q'. rewrite V_upd_other by (auto; reflexivity). apply HQ.
Qed.

Lemma do_get_data_other : forall sv b keys o, b <> o ->
  forall q, V (do_get_data fx sv b keys) o q = V sv o q.
Proof.
  intros sv b keys o Hne q. unfold do_get_data.
  match goal with |- context [do_traversal ?cb ?t ?m ?r ?u ?g ?a] =>
    pose proof (do_traversal_Q (option ditems * server) cb (fun acc => forall q', V (snd acc) o q' = V sv o q') t m u g
                  (fun acc n => getdata_cb_other sv b o acc n Hne) r a (fun q' => eq_refl)) as H;
    destruct (do_traversal cb t m r u g a) as [reply sv1] end.
  cbn [snd] in H. destruct reply; [|apply H]. rewrite V_upd_other by (auto; reflexivity). apply H.
Qed.

Lemma pend_ok_upd_keep : forall sv s f, (forall x, s_pending (f x) = s_pending x) -> pend_ok sv -> pend_ok (upd_session sv s f).
Proof.
  intros sv s f Hf [H1 H2]. split; cbn [sv_sessions sv_dirty upd_session].
  - intros ss d Hin Hp. apply in_map_iff in Hin as [x [Hx Hin]]. subst ss.
    destruct (N.eqb (s_id x) s); [rewrite Hf in Hp|]; eauto.
  - intros [ss [Hin Hp]]. apply in_map_iff in Hin as [x [Hx Hin]]. subst ss. apply H2. exists x. split; auto.
    destruct (N.eqb (s_id x) s); [now rewrite Hf in Hp|auto].
Qed.

Lemma pend_ok_set_tree : forall sv t, pend_ok sv -> pend_ok (set_tree sv t).
Proof. intros sv t H. exact H. Qed.

Lemma pend_ok_cqf : forall s oldf newf sv n, pend_ok sv -> pend_ok (cqf_cb fx s oldf newf sv n).
Proof.
  intros s oldf newf sv n H. unfold cqf_cb. destruct (Bool.eqb _ _); auto.
  destruct (get_session sv s); auto. destruct (_ && _); auto. now apply pend_ok_nca.
Qed.

Lemma pend_ok_getdata_cb : forall s acc n, pend_ok (snd acc) -> pend_ok (snd (fst (getdata_cb s acc n))).
Proof.
  intros s [reply0 sv0] n HQ. unfold getdata_cb. cbn [snd] in HQ.
  destruct (get_session sv0 s) as [ss|]; [|exact HQ].
  destruct (own_node ss (n_path n)); [exact HQ|].
  destruct (N.leb _ _); cbn [fst snd]; auto. apply pend_ok_upd_keep; auto.
Qed.

Lemma pend_ok_do_get_data : forall sv s keys, pend_ok sv -> pend_ok (do_get_data fx sv s keys).
Proof.
  intros sv s keys Hpo. unfold do_get_data.
  match goal with |- context [do_traversal ?cb ?t ?m ?r ?u ?g ?a] =>
    pose proof (do_traversal_Q (option ditems * server) cb (fun acc => pend_ok (snd acc)) t m u g
                  (pend_ok_getdata_cb s) r a Hpo) as H;
    destruct (do_traversal cb t m r u g a) as [reply sv1] end.
  cbn [snd] in H. destruct reply; auto. apply pend_ok_upd_keep; auto.
Qed.

Lemma cqf_traversal_other : forall b oldf newf t m root uf gf sv o, b <> o -> pend_ok sv ->
  let sv' := do_traversal (continue_cb (cqf_cb fx b oldf newf)) t m root uf gf sv in
  pend_ok sv' /\ forall q, V sv' o q = V sv o q.
Proof.
  intros b oldf newf t m root uf gf sv o Hne Hpo.
  apply (do_traversal_Q server (continue_cb (cqf_cb fx b oldf newf))
           (fun acc => pend_ok acc /\ forall q, V acc o q = V sv o q)).
  - intros acc n [H1 H2]. unfold continue_cb. cbn [fst]. split; [now apply pend_ok_cqf|].
    intros q. rewrite <- H2. unfold cqf_cb. destruct (Bool.eqb _ _); auto.
    destruct (get_session acc b) as [ss|] eqn:Hss; auto. destruct (_ && _); auto.
    rewrite (V_nca mir acc b (n_path n) (n_data n) _ o q H1) by eauto.
    assert (N.eqb o b = false) as -> by (apply N.eqb_neq; congruence). reflexivity.
  - split; auto.
Qed.

Lemma pend_ok_cqf_traversal : forall b oldf newf t m root uf gf sv, pend_ok sv ->
  pend_ok (do_traversal (continue_cb (cqf_cb fx b oldf newf)) t m root uf gf sv).
Proof.
  intros b oldf newf t m root uf gf sv Hpo.
  apply (do_traversal_Q server (continue_cb (cqf_cb fx b oldf newf)) pend_ok); auto.
  intros acc n H. unfold continue_cb. cbn [fst]. now apply pend_ok_cqf.
Qed.

Lemma pend_ok_subscribe_one : forall sv b sf, pend_ok sv -> pend_ok (subscribe_one fx sv b sf).
Proof.
  intros sv b [sp f] Hpo. unfold subscribe_one. cbn [fst snd].
  destruct (get_session sv b) as [ss|]; auto. destruct (fix_path sp) as [|c fp']; auto.
  destruct (m_get (s_subs ss) (c :: fp')) as [e|].
  - apply pend_ok_upd_keep; [reflexivity|]. destruct f, (e_flt e); auto; now apply pend_ok_cqf_traversal.
  - apply pend_ok_set_tree. apply pend_ok_upd_keep; [reflexivity|auto].
Qed.

Lemma pend_ok_unsubscribe_one : forall sv b sp, pend_ok sv -> pend_ok (unsubscribe_one fx sv b sp).
Proof.
  intros sv b sp Hpo. unfold unsubscribe_one. destruct (get_session sv b) as [ss|]; auto.
  destruct (m_remove (s_subs ss) (fix_path sp)); auto.
  apply pend_ok_set_tree. apply pend_ok_upd_keep; [reflexivity|auto].
Qed.

Lemma same_for_upd_other : forall sv b f o, (forall x, s_id (f x) = s_id x) -> b <> o -> same_for o sv (upd_session sv b f).
Proof.
  intros sv b f o Hf Hne ss' Hss'. rewrite get_session_upd_other in Hss' by auto. exists ss'. auto.
Qed.

Lemma same_for_trans : forall o a b c, same_for o a b -> same_for o b c -> same_for o a c.
Proof.
  intros o a b c H1 H2 ss3 Hss3. destruct (H2 ss3 Hss3) as [ss2 [Hss2 [E1 E2]]].
  destruct (H1 ss2 Hss2) as [ss1 [Hss1 [E3 E4]]]. exists ss1. split; [auto|split; congruence].
Qed.

(* a step that is none of o's business: o's virtual mirror, every payload and o's own record stay *)
Definition other_frame (o : sid) (sv sv' : server) : Prop :=
  (forall q, V sv' o q = V sv o q) /\ (forall q, data_at (sv_tree sv') q = data_at (sv_tree sv) q) /\ same_for o sv sv'.

Lemma other_refl : forall o sv, other_frame o sv sv.
Proof. intros o sv. split; [auto|split; [auto|intros x Hx; eauto]]. Qed.

Lemma other_trans : forall o a b c, other_frame o a b -> other_frame o b c -> other_frame o a c.
Proof.
  intros o a b c [H1 [H2 H3]] [H4 [H5 H6]].
  split; [intros q; now rewrite H4|split; [intros q; now rewrite H5|now apply (same_for_trans o a b)]].
Qed.

Lemma other_J : forall o sv sv', other_frame o sv sv' -> J sv o -> J sv' o.
Proof. intros o sv sv' [H1 [H2 H3]]. now apply J_frame_local. Qed.

Lemma other_core : forall o sv sv', same_core sv sv' -> (forall q, V sv' o q = V sv o q) -> other_frame o sv sv'.
Proof.
  intros o sv sv' Hc HV. split; [exact HV|split; [intros q; destruct Hc as [Ht _]; now rewrite Ht|]].
  now apply same_sess_for, same_core_sess.
Qed.

Lemma subscribe_one_other : forall sv b sf o, b <> o -> pend_ok sv -> other_frame o sv (subscribe_one fx sv b sf).
Proof.
  intros sv b sf o Hne Hpo. set (sv' := subscribe_one fx sv b sf). cut ((forall q, V sv' o q = V sv o q) /\ same_for o sv sv').
  { intros [H1 H2]. split; [exact H1|split; [intros q; apply subscribe_one_data|exact H2]]. }
  unfold sv', subscribe_one. destruct sf as [sp f]. cbn [fst snd].
  destruct (get_session sv b) as [ss|] eqn:Hss; [|split; [auto|intros x Hx; eauto]].
  destruct (fix_path sp) as [|c fp'] eqn:Hfp; [split; [auto|intros x Hx; eauto]|].
  destruct (m_get (s_subs ss) (c :: fp')) as [e|].
  - match goal with |- context [upd_session ?X b _] => set (sv1 := X) end.
    assert (H1 : (forall q, V sv1 o q = V sv o q) /\ same_core sv sv1).
    { unfold sv1. destruct f, (e_flt e); try (split; [intros q; reflexivity|apply same_core_refl]);
        (split; [apply (cqf_traversal_other b _ _ _ _ _ _ _ sv o Hne Hpo)|apply cqf_traversal_core]). }
    destruct H1 as [HV Hc]. cbv zeta. split.
    + intros q. rewrite V_upd_keep by (intros x; auto). apply HV.
    + apply (same_for_trans o sv sv1); [apply same_sess_for; now apply same_core_sess|].
      apply same_for_upd_other; auto.
  - cbv zeta. split.
    + intros q. rewrite V_set_tree, V_upd_keep by (intros x; auto). reflexivity.
    + intros ss' Hss'. change (get_session (upd_session sv b (fun x => set_subs x (m_put (s_subs x) (c :: fp') f))) o = Some ss') in Hss'.
      rewrite get_session_upd_other in Hss' by auto. eauto.
Qed.

Lemma unsubscribe_one_other : forall sv b sp o, b <> o -> other_frame o sv (unsubscribe_one fx sv b sp).
Proof.
  intros sv b sp o Hne. set (sv' := unsubscribe_one fx sv b sp). split; [|split; [intros q; apply unsubscribe_one_data|]]; unfold sv', unsubscribe_one;
    (destruct (get_session sv b) as [ss|]; [|auto; intros x Hx; eauto]);
    (destruct (m_remove (s_subs ss) (fix_path sp)) as [m'|]; [|auto; intros x Hx; eauto]).
  - intros q. rewrite V_set_tree, V_upd_keep by (intros x; auto). reflexivity.
  - intros ss' Hss'. change (get_session (upd_session sv b (fun x => set_subs x m')) o = Some ss') in Hss'.
    rewrite get_session_upd_other in Hss' by auto. eauto.
Qed.

(* the session that notifies is never told *)
Lemma V_notify_self_gen : forall sv by_ p d old r q, pend_ok sv ->
  V (notify_changed sv by_ p d old r) by_ q = V sv by_ q.
Proof.
  intros sv by_ p d old r q Hpo. unfold notify_changed. destruct (find_node (sv_tree sv) p) as [n|]; auto.
  revert sv Hpo. induction (n_subs n) as [|[k c] tb IH]; intros sv Hpo; cbn [fold_left]; auto. cbn [fst].
  destruct (N.eqb k by_) eqn:E; [now apply IH|].
  rewrite IH by (now apply pend_ok_node_changed).
  destruct (get_session sv k) as [ssk|] eqn:Hk.
  - rewrite (V_node_changed mir sv k ssk p d old r by_ q Hpo Hk).
    rewrite (N.eqb_sym by_ k), E. reflexivity.
  - unfold node_changed. now rewrite Hk.
Qed.

End Handlers.

Section NodeFrame.
Context {M : MatchOps} {L : MatchLaws M}.
Variable fx : fixes.

(* What SetDataNode, RemoveChild and DoRemoveData on behalf of session [by_] may do: replace the tree, keeping the
   payloads outside D, and -- unless quiet -- notify the subscribers of the changed node.  So every session keeps its
   core, pending Messages stay well formed, [by_] itself is told nothing (no reflect-to-self), and a quiet step
   touches no session record at all. *)
Set Implicit Arguments.
Record node_frame (by_ : sid) (quiet : bool) (D : path) (sv sv' : server) : Prop := mkNF {
  nf_sess : same_sess sv sv';
  nf_pend : pend_ok sv -> pend_ok sv';
  nf_self : pend_ok sv -> forall m q, V m sv' by_ q = V m sv by_ q;
  nf_data : forall q, is_prefix D q = false -> data_at (sv_tree sv') q = data_at (sv_tree sv) q;
  nf_rest : quiet = true -> sv_sessions sv' = sv_sessions sv /\ sv_dirty sv' = sv_dirty sv
}.

Unset Implicit Arguments.

Lemma nf_refl : forall by_ quiet D sv, node_frame by_ quiet D sv sv.
Proof. intros. split; auto. reflexivity. Qed.

Lemma nf_trans : forall by_ quiet D a b c, node_frame by_ quiet D a b -> node_frame by_ quiet D b c -> node_frame by_ quiet D a c.
Proof.
  intros by_ quiet D a b c [S1 P1 V1 D1 R1] [S2 P2 V2 D2 R2]. split; auto.
  - now apply (same_sess_trans a b).
  - intros Hp m q. rewrite V2 by auto. now apply V1.
  - intros q Hq. rewrite D2 by auto. now apply D1.
  - intros Hq. destruct (R1 Hq), (R2 Hq). split; congruence.
Qed.

Lemma nf_below : forall by_ quiet D D' a b, is_prefix D D' = true -> node_frame by_ quiet D' a b -> node_frame by_ quiet D a b.
Proof.
  intros by_ quiet D D' a b HD [S1 P1 V1 D1 R1]. split; auto.
  intros q Hq. apply D1. destruct (is_prefix D' q) eqn:E; auto.
  apply is_prefix_spec in HD as [r1 H1]. apply is_prefix_spec in E as [r2 H2].
  assert (is_prefix D q = true); [|congruence]. apply is_prefix_spec. exists (r1 ++ r2). now rewrite H2, H1, app_assoc.
Qed.

Lemma nf_tree : forall by_ quiet D sv t p, is_prefix D p = true ->
  (forall q, q <> p -> data_at t q = data_at (sv_tree sv) q) -> node_frame by_ quiet D sv (set_tree sv t).
Proof.
  intros by_ quiet D sv t p Hp Ht. split; auto; try reflexivity.
  intros q Hq. apply Ht. congruence.
Qed.

Lemma nf_notify : forall by_ D sv p d old r, node_frame by_ false D sv (notify_changed sv by_ p d old r).
Proof.
  intros by_ D sv p d old r. pose proof (notify_changed_core sv by_ p d old r) as Hc. split.
  - now apply same_core_sess.
  - now apply pend_ok_notify_changed.
  - intros Hpo m q. now apply V_notify_self_gen.
  - intros q _. destruct Hc as [Ht _]. now rewrite Ht.
  - discriminate.
Qed.

Lemma set_data_loop_nf : forall cl sv by_ pp d dc dow qf,
  node_frame by_ qf pp sv (set_data_loop sv by_ pp cl d dc dow qf).
Proof.
  induction cl as [|k rest IH]; intros sv by_ pp d dc dow qf; cbn [set_data_loop]; [apply nf_refl|].
  assert (Hpk : is_prefix pp (pp ++ [k]) = true) by (apply is_prefix_spec; eauto).
  (* the node pp ++ [k] is replaced or created, and its subscribers told unless quiet *)
  assert (Hn : forall t d1 old, (forall q, q <> pp ++ [k] -> data_at t q = data_at (sv_tree sv) q) ->
            node_frame by_ qf pp sv (if qf then set_tree sv t else notify_changed (set_tree sv t) by_ (pp ++ [k]) d1 old false)).
  { intros t d1 old Ht. pose proof (nf_tree by_ qf pp sv t (pp ++ [k]) Hpk Ht) as H1. destruct qf; [exact H1|].
    eapply nf_trans; [exact H1|apply nf_notify]. }
  destruct (find_node (sv_tree sv) (pp ++ [k])) as [n|].
  - destruct rest as [|k2 rest2]; [|apply (nf_below _ _ pp (pp ++ [k]) _ _ Hpk), IH].
    destruct dow; [apply nf_refl|]. apply Hn. intros q Hq. now apply data_at_set_data.
  - destruct dc; [apply nf_refl|]. destruct (Nat.leb max_node_depth (length pp)); [apply nf_refl|].
    pose proof (fun d0 => Hn _ d0 None (data_at_add (sv_tree sv) (mkNode (pp ++ [k]) d0 (new_node_table sv (pp ++ [k]))))) as Hc.
    destruct rest as [|k2 rest2]; [apply Hc|].
    eapply nf_trans; [apply Hc|]. apply (nf_below _ _ pp (pp ++ [k]) _ _ Hpk), IH.
Qed.

Lemma set_data_items_nf : forall items sv s ss flags, get_session sv s = Some ss ->
  node_frame s (flag_set flags c_SETDATANODE_FLAG_QUIET) (session_dir ss) sv
    (fold_left (fun sv' it => match get_session sv' s with
                              | Some ss' => match fst it with
                                            | [] => sv'
                                            | _ => set_data_node sv' ss' (fst it) (snd it) flags
                                            end
                              | None => sv'
                              end) items sv).
Proof.
  induction items as [|it items IH]; intros sv s ss flags Hss; cbn [fold_left]; [apply nf_refl|]. rewrite Hss.
  destruct (fst it) as [|k rel]; [now apply IH|].
  pose proof (find_session_some _ _ _ Hss) as [_ Hid]. unfold set_data_node. rewrite Hid.
  pose proof (set_data_loop_nf (k :: rel) sv s (session_dir ss) (snd it) (flag_set flags c_SETDATANODE_FLAG_DONTCREATENODE)
                (flag_set flags c_SETDATANODE_FLAG_DONTOVERWRITEDATA) (flag_set flags c_SETDATANODE_FLAG_QUIET)) as H1.
  destruct (get_session_sess_fwd sv _ s ss (nf_sess H1) Hss) as [ss1 [Hss1 [_ Hdir]]].
  eapply nf_trans; [exact H1|]. pose proof (IH _ s ss1 flags Hss1) as H2. now rewrite Hdir in H2.
Qed.

Lemma remove_subtree_nf : forall sv by_ p notify, node_frame by_ (negb notify) p sv (remove_subtree sv by_ p notify).
Proof.
  intros sv by_ p notify. unfold remove_subtree.
  pose proof (removal_order_below (S (length (sv_tree sv))) (sv_tree sv) p) as Hb.
  revert Hb. generalize (removal_order (S (length (sv_tree sv))) (sv_tree sv) p). intros Lq.
  revert sv. induction Lq as [|x Lq IH]; intros sv Hb; cbn [fold_left]; [apply nf_refl|].
  pose proof (fun sv0 => IH sv0 (fun y Hy => Hb y (or_intror Hy))) as IH'.
  destruct (find_node (sv_tree sv) x) as [n|]; [|apply IH'].
  eapply nf_trans; [|apply IH'].
  eapply nf_trans; [|apply (nf_tree _ _ p _ _ x (Hb x (or_introl eq_refl))); intros q Hq; now apply data_at_remove].
  destruct notify; [apply nf_notify|apply nf_refl].
Qed.

Lemma do_remove_data_nf : forall sv ss keys quiet,
  node_frame (s_id ss) quiet (session_dir ss) sv (do_remove_data fx sv ss keys quiet).
Proof.
  intros sv ss keys quiet. unfold do_remove_data.
  pose proof (remove_targets_below fx (sv_tree sv) (m_of_list keys) (session_dir ss)) as Hrs.
  revert Hrs. generalize (do_traversal remove_cb (sv_tree sv) (m_of_list keys) (session_dir ss) true (fx_guard fx) []).
  intros rs. revert sv. induction rs as [|p rs IH]; intros sv Hrs; cbn [fold_left]; [apply nf_refl|].
  pose proof (fun sv0 => IH sv0 (fun y Hy => Hrs y (or_intror Hy))) as IH'.
  destruct (has_node (sv_tree sv) p); [|apply IH'].
  eapply nf_trans; [|apply IH']. apply (nf_below _ _ _ p _ _ (Hrs p (or_introl eq_refl))).
  destruct quiet; [exact (remove_subtree_nf sv _ p false)|exact (remove_subtree_nf sv _ p true)].
Qed.

End NodeFrame.

Section Sessions.
Context {M : MatchOps} {L : MatchLaws M}.
Variable fx : fixes.
Hypothesis guard_on : fx_guard fx = true.
Variable mir : mirror.

Notation J := (J mir).
Notation V := (V mir).

Lemma V_add_session : forall sv ssn o q, get_session sv o <> None ->
  V (mkServer (sv_tree sv) (sv_sessions sv ++ [ssn]) (sv_dirty sv)) o q = V sv o q.
Proof.
  intros sv ssn o q H. unfold V, get_session in *. cbn [sv_sessions]. rewrite find_session_app.
  destruct (find_session (sv_sessions sv) o); [reflexivity|contradiction].
Qed.

Lemma pend_ok_add_session : forall sv s host nm, pend_ok sv ->
  pend_ok (mkServer (sv_tree sv) (sv_sessions sv ++ [mkSession s host nm empty_matcher default_max_items None []]) (sv_dirty sv)).
Proof.
  intros sv s host nm [H1 H2]. split; cbn [sv_sessions sv_dirty].
  - intros ss d Hin Hp. apply in_app_or in Hin as [Hin|[Hin|[]]]; [eauto|subst ss; discriminate].
  - intros [ss [Hin Hp]]. apply in_app_or in Hin as [Hin|[Hin|[]]]; [apply H2; eauto|subst ss; now contradiction Hp].
Qed.

(* AttachedToServer(): the record is added; then the host node (if new) and the session node are created and
   announced on behalf of the newcomer; then everything pending is pushed *)
Lemma attach_frame : forall sv s host nm, exists sv2,
  attach sv s host nm = push_all sv2
  /\ node_frame s false [] (mkServer (sv_tree sv) (sv_sessions sv ++ [mkSession s host nm empty_matcher default_max_items None []]) (sv_dirty sv)) sv2.
Proof.
  intros sv s host nm. unfold attach. eexists. split; [reflexivity|].
  assert (Hadd : forall sv1 p d, node_frame s false [] sv1
            (notify_changed (set_tree sv1 (add_node (sv_tree sv1) (mkNode p d (new_node_table sv1 p)))) s p d None false)).
  { intros sv1 p d. eapply nf_trans; [|apply nf_notify].
    exact (nf_tree _ _ [] sv1 _ p eq_refl (data_at_add _ (mkNode p d (new_node_table sv1 p)))). }
  eapply nf_trans; [|apply Hadd]. destruct (has_node _ [host]); [apply nf_refl|apply Hadd].
Qed.

Lemma attach_J : forall B sv s host nm o, small B -> inv B sv -> pend_ok sv -> get_session sv s = None ->
  (forall ss, In ss (sv_sessions sv) -> session_dir ss <> [host; nm]) ->
  o <> s -> J sv o -> J (attach sv s host nm) o /\ pend_ok (attach sv s host nm).
Proof.
  intros B sv s host nm o HB I Hpo Hnone Hfresh Hne HJ. unfold attach.
  set (ssn := mkSession s host nm empty_matcher default_max_items None []).
  set (sv0 := mkServer (sv_tree sv) (sv_sessions sv ++ [ssn]) (sv_dirty sv)).
  destruct (attach_pre B sv s host nm I Hnone Hfresh) as [I0 Habsent]. fold ssn in I0. fold sv0 in I0.
  assert (Hpo0 : pend_ok sv0) by (now apply pend_ok_add_session).
  assert (HJ0 : J sv0 o).
  { intros ss0 Hss0 q Hown. unfold get_session in Hss0. cbn [sv_sessions sv0] in Hss0. rewrite find_session_app in Hss0.
    destruct (find_session (sv_sessions sv) o) as [ss|] eqn:Hso.
    - inversion Hss0; subst ss0. unfold sv0. rewrite V_add_session by (unfold get_session; now rewrite Hso).
      apply HJ; auto.
    - cbn [s_id ssn] in Hss0. destruct (N.eqb s o) eqn:E; [|discriminate]. apply N.eqb_eq in E. congruence. }
  assert (Hdir0 : exists ss, In ss (sv_sessions sv0) /\ session_dir ss = [host; nm]).
  { exists ssn. split; [cbn; apply in_or_app; right; now left|reflexivity]. }
  match goal with |- J (push_all (notify_changed (set_tree ?X _) _ _ _ _ _)) _ /\ _ => set (sv1 := X) end.
  assert (H1 : J sv1 o /\ pend_ok sv1 /\ inv_x B [host; nm] sv1 /\ has_node (sv_tree sv1) [host] = true
               /\ find_node (sv_tree sv1) [host; nm] = None
               /\ exists ss, In ss (sv_sessions sv1) /\ session_dir ss = [host; nm]).
  { unfold sv1. destruct (has_node (sv_tree sv0) [host]) eqn:Hh.
    - repeat (split; [assumption|]). exact Hdir0.
    - assert (Hn0 : find_node (sv_tree sv0) ([] ++ [host]) = None).
      { unfold has_node in Hh. cbn [app]. destruct (find_node (sv_tree sv0) [host]); [discriminate|reflexivity]. }
      destruct (create_step_J mir B [host; nm] sv0 s [] host empty_payload o HB I0 Hpo0 (or_introl eq_refl)) as [Ha [Hb [Hc [Hd [He Hf]]]]]; auto.
      { cbn. discriminate. }
      cbn [app] in *. split; [exact Ha|split; [exact Hb|split; [exact Hc|split; [exact Hd|split]]]].
      + rewrite Hf. apply find_node_none. intros n Hn. apply in_app_or in Hn as [Hn|[Hn|[]]].
        * cbn [sv_tree sv0] in Hn. rewrite find_node_none in Habsent. now apply Habsent.
        * subst n. cbn. discriminate.
      + now apply (core_dir_exists (sv_sessions sv0)). }
  destruct H1 as [HJ1 [Hpo1 [I1 [Hhost [Habs1 Hdir1]]]]].
  destruct (create_step_J mir B [host; nm] sv1 s [host] nm empty_payload o HB I1 Hpo1 (or_intror Hhost)) as [Ha [Hb _]]; auto.
  cbn [app] in *. split; [now apply J_push_all|now apply pend_ok_push_all].
Qed.

Lemma expected_empty : forall t (ss : session) q, s_subs ss = empty_matcher -> expected t ss q = None.
Proof. intros t ss q H. unfold expected. rewrite H. destruct (find_node t q); reflexivity. Qed.

(* the newcomer itself: nothing subscribed, nothing held *)
Lemma attach_J_new : forall sv s host nm, mir = [] -> pend_ok sv -> get_session sv s = None ->
  J (attach sv s host nm) s.
Proof.
  intros sv s host nm Hmir Hpo Hnone. destruct (attach_frame sv s host nm) as [sv2 [-> F]].
  set (ssn := mkSession s host nm empty_matcher default_max_items None []) in *.
  set (sv0 := mkServer (sv_tree sv) (sv_sessions sv ++ [ssn]) (sv_dirty sv)) in *.
  assert (Hss0 : get_session sv0 s = Some ssn).
  { unfold get_session in *. cbn [sv_sessions sv0]. rewrite find_session_app, Hnone. cbn [s_id ssn]. now rewrite N.eqb_refl. }
  intros ss Hss q Hown.
  destruct (get_session_sess sv0 _ s ss (same_sess_trans _ _ _ (nf_sess F) (same_core_sess _ _ (push_all_core sv2))) Hss)
    as [ss0 [Hss0' [Hsub _]]].
  assert (ss0 = ssn) by congruence. subst ss0.
  rewrite expected_empty by (now rewrite <- Hsub).
  rewrite V_push_all, (nf_self F (pend_ok_add_session sv s host nm Hpo)). unfold V. rewrite Hss0. cbn. now rewrite Hmir.
Qed.

Lemma V_drop_session : forall sv t s o q, o <> s ->
  V (mkServer t (filter (fun x => negb (N.eqb (s_id x) s)) (sv_sessions sv)) (sv_dirty sv)) o q = V sv o q.
Proof.
  intros sv t s o q Hne. unfold V, get_session. cbn [sv_sessions]. rewrite find_session_filter by congruence. reflexivity.
Qed.

Lemma detach_J : forall B sv s o, inv B sv -> pend_ok sv -> o <> s -> J sv o -> J (detach fx sv s) o.
Proof.
  intros B sv s o I Hpo Hne HJ. unfold detach.
  destruct (get_session sv s) as [ss|] eqn:Hss; auto.
  assert (Hin : In ss (sv_sessions sv)) by (apply find_session_some in Hss; tauto).
  pose proof (inv_dirs_exist B sv ss I Hin) as Hdir.
  assert (Hhost : has_node (sv_tree sv) [s_host ss] = true).
  { apply has_node_spec in Hdir as [n [H1 H2]].
    destruct (inv_tree _ _ _ I) as [_ [_ Hpre]].
    destruct (Hpre n [s_host ss] [s_name ss] H1 H2) as [n' [H3 H4]]; [discriminate|].
    apply has_node_spec. eauto. }
  rewrite Hhost, Hdir.
  destruct (remove_subtree_J mir sv s (session_dir ss) o (inv_marks_ok _ _ _ I) Hpo (or_introl Hne) HJ) as [HJ1 [Hpo1 [Hmk1 Hs1]]].
  set (sv1 := remove_subtree sv s (session_dir ss) true) in *.
  match goal with |- J (mkServer _ (filter _ (sv_sessions (push_all ?X))) _) _ => set (sv2 := X) end.
  assert (H2 : J sv2 o /\ pend_ok sv2).
  { unfold sv2. destruct (has_children (sv_tree sv1) [s_host ss]); [split; auto|].
    destruct (remove_subtree_J mir sv1 s [s_host ss] o Hmk1 Hpo1 (or_introl Hne) HJ1) as [Ha [Hb _]]. split; auto. }
  destruct H2 as [HJ2 Hpo2].
  set (sv3 := push_all sv2).
  assert (HJ3 : J sv3 o) by (now apply J_push_all).
  (* unmarking touches subscriber tables only; dropping the session touches neither the observer nor the tree *)
  intros ss' Hss' q Hown. unfold get_session in Hss'. cbn [sv_sessions] in Hss'.
  rewrite find_session_filter in Hss' by congruence.
  rewrite V_drop_session by auto. rewrite (HJ3 ss' Hss' q Hown). f_equal. cbn [sv_tree].
  destruct (sv_tree sv3) as [|n0 t0] eqn:Et; [reflexivity|]. rewrite <- Et.
  symmetry. apply expected_data. apply data_at_mark_gen.
Qed.

End Sessions.
