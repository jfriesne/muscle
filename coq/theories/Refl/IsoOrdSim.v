(* Refl/IsoOrdSim.v -- C06, as-if-never with ordered children (model: Refl/IsoOrd.v): the simulation of Refl/IsoAsIf.v
   extended to the ordered indices and name counters.  The run with s and the run without it generate the same child names,
   build the same indices and keep the same counters everywhere outside s's subtree. *)
From Coq Require Import List NArith ZArith Bool Arith Lia Permutation.
From Muscle Require Import Gen.Consts Refl.Base Refl.BaseProofs Refl.Tree Refl.TreeProofs Refl.Matcher Refl.MatcherProofs
     Refl.Traverse Refl.TraverseProofs Refl.TraverseTheorems Refl.Session Refl.Server Refl.ServerProofs
     Refl.IsoModel Refl.IsoBase Refl.IsoFrame Refl.IsoSimBase Refl.IsoSim Refl.IsoDetach Refl.IsoRun
     Refl.IsoHosts Refl.IsoNever Refl.IsoKick Refl.IsoAsIf Refl.IsoOrd Refl.IsoOrdProofs.
Import ListNotations.

(* ------------------------------------------------------------------ tables seen without the entries below a directory *)

Definition vis_tbl {A : Type} (od : option path) (tb : list (path * A)) : list (path * A) :=
  filter (fun e => negb (hidden od (fst e))) tb.

Lemma vis_idx_get : forall od (ix : itbl) p, hidden od p = false -> idx_get (vis_tbl od ix) p = idx_get ix p.
Proof.
  intros od ix p Hp. induction ix as [|e r IH]; [reflexivity|]. unfold vis_tbl in *. cbn [filter idx_get].
  destruct (path_eqb (fst e) p) eqn:E.
  - apply path_eqb_eq in E. rewrite E, Hp. cbn [negb idx_get]. rewrite E. now rewrite (proj2 (path_eqb_eq p p) eq_refl).
  - destruct (negb (hidden od (fst e))); [cbn [idx_get]; rewrite E|]; exact IH.
Qed.

Lemma vis_ctr_get : forall od (ct : ctbl) p, hidden od p = false -> ctr_get (vis_tbl od ct) p = ctr_get ct p.
Proof.
  intros od ct p Hp. induction ct as [|e r IH]; [reflexivity|]. unfold vis_tbl in *. cbn [filter ctr_get].
  destruct (path_eqb (fst e) p) eqn:E.
  - apply path_eqb_eq in E. rewrite E, Hp. cbn [negb ctr_get]. rewrite E. now rewrite (proj2 (path_eqb_eq p p) eq_refl).
  - destruct (negb (hidden od (fst e))); [cbn [ctr_get]; rewrite E|]; exact IH.
Qed.

Lemma vis_idx_set : forall od (ix : itbl) p l, hidden od p = false -> vis_tbl od (idx_set ix p l) = idx_set (vis_tbl od ix) p l.
Proof.
  intros od ix p l Hp. unfold vis_tbl, idx_set. rewrite filter_app, filter_comm. f_equal.
  destruct l; [reflexivity|]. cbn [filter fst]. now rewrite Hp.
Qed.

Lemma vis_ctr_set : forall od (ct : ctbl) p c, hidden od p = false -> vis_tbl od (ctr_set ct p c) = ctr_set (vis_tbl od ct) p c.
Proof.
  intros od ct p c Hp. unfold vis_tbl, ctr_set. rewrite filter_app, filter_comm. f_equal.
  destruct (N.eqb c 0); [reflexivity|]. cbn [filter fst]. now rewrite Hp.
Qed.

Lemma vis_idx_set_hidden : forall od (ix : itbl) p l, hidden od p = true -> vis_tbl od (idx_set ix p l) = vis_tbl od ix.
Proof.
  intros [d|] ix p l Hp; [|discriminate]. exact (idx_out_set_inside d ix p l Hp).
Qed.

Lemma vis_ctr_set_hidden : forall od (ct : ctbl) p c, hidden od p = true -> vis_tbl od (ctr_set ct p c) = vis_tbl od ct.
Proof.
  intros [d|] ct p c Hp; [|discriminate]. exact (ctr_out_set_inside d ct p c Hp).
Qed.

Lemma vis_tbl_none : forall (A : Type) (tb : list (path * A)), vis_tbl None tb = tb.
Proof. intros. unfold vis_tbl. apply filter_id. reflexivity. Qed.

Lemma vis_prune_idx : forall od t ix, vis_tbl od (prune_idx t ix) = prune_idx t (vis_tbl od ix).
Proof.
  intros [d|] t ix; [exact (idx_out_prune d t ix)|]. now rewrite !vis_tbl_none.
Qed.

Lemma vis_prune_ctr : forall od t ct, vis_tbl od (prune_ctr t ct) = prune_ctr t (vis_tbl od ct).
Proof.
  intros [d|] t ct; [exact (ctr_out_prune d t ct)|]. now rewrite !vis_tbl_none.
Qed.

Lemma prune_idx_ext : forall t t' ix,
  (forall e, In e ix -> has_node t' (fst e) = has_node t (fst e) /\ forall k, has_node t' (fst e ++ [k]) = has_node t (fst e ++ [k])) ->
  prune_idx t' ix = prune_idx t ix.
Proof.
  intros t t' ix H. unfold prune_idx. f_equal.
  assert (Hf : filter (fun e : path * list name => has_node t' (fst e)) ix = filter (fun e => has_node t (fst e)) ix)
    by (apply filter_ext_in; intros e He; apply (H e He)).
  rewrite Hf. apply map_ext_in. intros e He. apply filter_In in He as [He _]. f_equal. apply filter_ext. intros k. apply (H e He).
Qed.

Lemma prune_ctr_ext : forall t t' (ct : ctbl), (forall e, In e ct -> has_node t' (fst e) = has_node t (fst e)) -> prune_ctr t' ct = prune_ctr t ct.
Proof. intros t t' ct H. unfold prune_ctr. now apply filter_ext_in. Qed.

Lemma hidden_child : forall od p k, (forall d, od = Some d -> length d = 2) -> 2 <= length p -> hidden od p = false -> hidden od (p ++ [k]) = false.
Proof.
  intros [d|] p k Hd Hp Hh; [|reflexivity]. cbn [hidden] in *.
  pose proof (out_child d p k (Hd d eq_refl) Hp) as H. unfold out in H. rewrite Hh in H. specialize (H eq_refl). now apply negb_true_iff in H.
Qed.

(* pruning on the two sides *)
Lemma prune_idx_sim : forall s od tF tE ix, rel_tree s od tF tE -> (forall d, od = Some d -> length d = 2) -> deep ix ->
  vis_tbl od (prune_idx tF ix) = prune_idx tE (vis_tbl od ix).
Proof.
  intros s od tF tE ix R Hd D. rewrite vis_prune_idx. symmetry. apply prune_idx_ext. intros e He. unfold vis_tbl in He.
  apply filter_In in He as [He Hv]. apply negb_true_iff in Hv. pose proof (D e He) as Hl. split.
  - now apply (rel_has_node s od).
  - intros k. apply (rel_has_node s od); [exact R|rewrite app_length; cbn; lia|now apply hidden_child].
Qed.

Lemma prune_ctr_sim : forall s od tF tE (ct : ctbl), rel_tree s od tF tE -> deep ct ->
  vis_tbl od (prune_ctr tF ct) = prune_ctr tE (vis_tbl od ct).
Proof.
  intros s od tF tE ct R D. rewrite vis_prune_ctr. symmetry. apply prune_ctr_ext. intros e He. unfold vis_tbl in He.
  apply filter_In in He as [He Hv]. apply negb_true_iff in Hv. now apply (rel_has_node s od); [|apply D|].
Qed.

(* ------------------------------------------------------------------ the same nodes are visited, the same names generated *)

Section Plans.
Context {M : MatchOps}.
Variable iname : N -> name.
Variable s : sid.

Lemma visits_paths_sim : forall od tF tE m root uf gf, rel_tree s od tF tE -> root <> [] ->
  (forall r, hidden od (root ++ r) = false) ->
  map n_path (visits tE m root uf gf) = map n_path (visits tF m root uf gf).
Proof.
  intros od tF tE m root uf gf R Hr Hv.
  set (g := fun (acc : list path) (n : node) => n_path n :: acc).
  assert (Hfold : forall t, do_traversal (continue_cb g) t m root uf gf [] = rev (map n_path (visits t m root uf gf))).
  { intros t. unfold do_traversal. rewrite trav_continue, visits_V. cbn [fst].
    generalize (V t m (length root) uf gf (S (max_clauses m)) root). intros l.
    assert (G : forall acc, fold_left g l acc = rev (map n_path l) ++ acc).
    { induction l as [|x l IH]; intros acc; cbn [fold_left map rev]; [reflexivity|]. rewrite IH. unfold g. cbn [app]. now rewrite <- app_assoc. }
    rewrite G. apply app_nil_r. }
  assert (H2 : do_traversal (continue_cb g) tE m root uf gf [] = do_traversal (continue_cb g) tF m root uf gf [])
    by (apply (traversal_sim _ (continue_cb g) s od); [exact R|exact Hr| |exact Hv]; intros acc n; unfold continue_cb, g, depth; now rewrite strip_path).
  rewrite !Hfold in H2. apply (f_equal (@rev path)) in H2. now rewrite !rev_involutive in H2.
Qed.

Lemma gen_name_ext : forall t t' pp fuel c, (forall k, has_node t' (pp ++ [k]) = has_node t (pp ++ [k])) ->
  gen_name iname t' pp c fuel = gen_name iname t pp c fuel.
Proof. intros t t' pp fuel. induction fuel as [|f IH]; intros c H; cbn [gen_name]; [reflexivity|]. rewrite H. now rewrite IH. Qed.

Lemma plan_names_sim : forall od tF tE pp c items, rel_tree s od tF tE -> 2 <= length pp ->
  (forall r, hidden od (pp ++ r) = false) ->
  plan_names iname tE pp c items = plan_names iname tF pp c items.
Proof.
  intros od tF tE pp c items R Hl Hv. revert c. induction items as [|it r IH]; intros c; cbn [plan_names]; [reflexivity|].
  assert (Hc : children tE pp = map (strip s) (children tF pp)).
  { apply (rel_children s od); [exact R|destruct pp; [cbn in Hl; lia|discriminate]|intros k; apply Hv]. }
  rewrite Hc, map_length.
  rewrite (gen_name_ext tF tE pp (S (length (children tF pp))) c).
  - now rewrite IH.
  - intros k. apply (rel_has_node s od); [exact R|rewrite app_length; cbn; lia|apply Hv].
Qed.

End Plans.

(* ------------------------------------------------------------------ commands: unfolding, budget, invariants *)

Section OSim.
Context {M : MatchOps} {L : MatchLaws M}.
Variable fx : fixes.
Hypothesis guard_on : fx_guard fx = true.
Variable iname : N -> name.
Variable s : sid.

Notation oserver := (@oserver M).

Fixpoint obudget (c : ocmd) : nat :=
  match c with
  | OX xc => xcmd_budget xc
  | OBatch l => (fix sum (l : list ocmd) : nat := match l with [] => 0 | c' :: r => obudget c' + sum r end) l
  | _ => 0
  end.

Fixpoint osum (l : list ocmd) : nat := match l with [] => 0 | c' :: r => obudget c' + osum r end.

Lemma obudget_batch : forall l, obudget (OBatch l) = osum l.
Proof. induction l as [|c l IH]; [reflexivity|]. cbn [osum]. rewrite <- IH. reflexivity. Qed.

Definition oev_budget (ev : oevent) : nat := match ev with OCmd _ c => obudget c | _ => 0 end.
Fixpoint orun_budget (evs : list oevent) : nat := match evs with [] => 0 | ev :: r => oev_budget ev + orun_budget r end.

Lemma ohandle_inv : forall c nest (os : oserver) t B, small (B + obudget c) -> inv B (xs_sv (o_x os)) ->
  inv (B + obudget c) (xs_sv (o_x (ohandle fx iname nest os t c))).
Proof.
  induction c as [xc|k i|f|fl i|l IHl] using ocmd_ind'; intros nest os t B HB I; cbn [ohandle];
    (destruct (get_session (xs_sv (o_x os)) t) as [a|]; [|apply (inv_weaken B); [lia|exact I]]).
  - now apply (xhandle_inv fx guard_on).
  - now apply (xhandle_inv fx guard_on (XSetData _ _)).
  - apply (inv_weaken B); [lia|exact I].
  - cbn [do_set_idx oprune o_x obudget]. rewrite Nat.add_0_r in *. revert os I.
    induction i as [|it i IH]; intros os I; cbn [fold_left]; [exact I|]. apply IH.
    pose proof (xhandle_inv fx guard_on (XSetData (N.setbit fl c_SETDATANODE_FLAG_DONTOVERWRITEDATA) [it]) nest (o_x os) (s_id a) B) as H.
    cbn [xcmd_budget] in H. rewrite Nat.add_0_r in H. now apply H.
  - rewrite obudget_batch in *. destruct (Nat.ltb nest max_batch_nest); [|apply (inv_weaken B); [lia|exact I]]. rewrite batch_loop.
    revert os B HB I. induction IHl as [|c l Hc _ IHl']; intros os B HB I; cbn [fold_left osum] in *.
    + now rewrite Nat.add_0_r.
    + rewrite Nat.add_assoc. apply IHl'; [now rewrite <- Nat.add_assoc|]. unfold opush. cbn [o_x xs_sv with_sv].
      eapply inv_same_core; [apply push_all_core|]. apply Hc; [|exact I]. eapply small_le; [|exact HB]. lia.
Qed.

Lemma ohandle_keeps : forall c nest (os : oserver) t, ok os ->
  let sv1 := xs_sv (o_x (ohandle fx iname nest os t c)) in
  (hosts_ok (xs_sv (o_x os)) -> hosts_ok sv1) /\ (names_ok (xs_sv (o_x os)) -> names_ok sv1) /\ sdir s sv1 = sdir s (xs_sv (o_x os)).
Proof.
  intros c nest os t Hok sv1. destruct (ohandle_frame_ex fx iname c nest os t Hok) as [dir [Hd [[Fr _] _]]]. fold sv1 in Fr.
  split; [now apply (hosts_ok_frame _ _ t dir)|]. split; [apply names_ok_idents, Fr|apply (sdir_idents s), Fr].
Qed.

Lemma ohandle_good : forall c nest (OF OE : oserver) t B, small (B + obudget c) -> ok OF -> ok OE ->
  good B (xs_sv (o_x OF)) (xs_sv (o_x OE)) ->
  good (B + obudget c) (xs_sv (o_x (ohandle fx iname nest OF t c))) (xs_sv (o_x (ohandle fx iname nest OE t c))).
Proof.
  intros c nest OF OE t B HB KF KE (IF & IE & HF & HE & NF).
  destruct (ohandle_keeps c nest OF t KF) as [KF1 [KF2 _]]. destruct (ohandle_keeps c nest OE t KE) as [KE1 _].
  split; [now apply ohandle_inv|]. split; [now apply ohandle_inv|]. auto.
Qed.

(* ------------------------------------------------------------------ where s lives, through arrivals and departures of others *)

Lemma attach_sdir : forall F t host nm, t <> s -> sdir s (attach F t host nm) = sdir s F.
Proof.
  intros F t host nm Ht. set (ss := mkSession t host nm empty_matcher default_max_items None []).
  rewrite (sdir_params s (mkServer (sv_tree F) (sv_sessions F ++ [ss]) (sv_dirty F)) (attach F t host nm))
    by apply attach_params.
  unfold sdir, get_session. cbn [sv_sessions]. now rewrite find_session_app_other by exact Ht.
Qed.

Lemma attach_sdir_self : forall F host nm, get_session F s = None -> sdir s (attach F s host nm) = Some [host; nm].
Proof.
  intros F host nm Hs. set (ss := mkSession s host nm empty_matcher default_max_items None []).
  rewrite (sdir_params s (mkServer (sv_tree F) (sv_sessions F ++ [ss]) (sv_dirty F)) (attach F s host nm))
    by apply attach_params.
  unfold sdir, get_session. cbn [sv_sessions]. change s with (s_id ss) at 1. now rewrite (find_session_app_new (sv_sessions F) ss) by exact Hs.
Qed.

Lemma detach_nodes_old : forall B F t n', inv B F -> In n' (sv_tree (detach fx F t)) -> exists n, In n (sv_tree F) /\ n_path n' = n_path n.
Proof.
  intros B F t n' I Hn. destruct (get_session F t) as [a|] eqn:Ha.
  - destruct (detach_rest_untouched fx guard_on B F t a I Ha n' Hn) as [n [H1 [H2 _]]]. now exists n.
  - unfold detach in Hn. rewrite Ha in Hn. now exists n'.
Qed.

(* after the marked sessions are gone, s is where it was -- or gone, with nothing left below its directory *)
Definition moved (F F' : server) : Prop :=
  sdir s F' = sdir s F \/
  (sdir s F' = None /\ forall d n, sdir s F = Some d -> In n (sv_tree F') -> is_prefix d (n_path n) = false).

Lemma detach_all_moved : forall B l F, small B -> inv B F -> moved F (detach_all fx l F).
Proof.
  intros B l F HB I.
  assert (G : forall X, inv B X -> moved F X -> moved F (detach_all fx l X)).
  { induction l as [|t l IH]; intros X IX HX; cbn [detach_all fold_left]; [exact HX|].
    apply IH; [now apply detach_inv|]. destruct (N.eq_dec t s) as [->|Ht].
    - destruct (get_session X s) as [a|] eqn:Ha; [|unfold detach; now rewrite Ha].
      right. split; [unfold sdir; now rewrite (proj1 (detach_sessions fx guard_on B X s a IX Ha))|].
      intros d n Hd Hn. destruct HX as [HX|[HX _]].
      + rewrite <- HX in Hd. unfold sdir in Hd. rewrite Ha in Hd. cbn in Hd. injection Hd as <-.
        exact (detach_subtree_gone fx guard_on B X s a IX Ha n Hn).
      + unfold sdir in HX. rewrite Ha in HX. discriminate.
    - destruct HX as [HX|[HX1 HX2]]; [left; now rewrite detach_sdir|].
      right. split; [now rewrite detach_sdir|]. intros d n Hd Hn.
      destruct (detach_nodes_old B X t n IX Hn) as [n0 [Hn0 Hp]]. rewrite Hp. now apply (HX2 d n0). }
  apply G; [exact I|now left].
Qed.

(* entries that the pruning removes anyway may be filtered away first *)
Lemma filter_dead : forall (A : Type) (f g : A -> bool) l, (forall e, In e l -> f e = false -> g e = false) ->
  filter g l = filter g (filter f l).
Proof.
  intros A f g l H. rewrite filter_comm. symmetry. apply filter_id.
  intros e He. apply filter_In in He as [He Hg]. destruct (f e) eqn:E; [reflexivity|]. rewrite (H e He E) in Hg. discriminate.
Qed.

Lemma prune_idx_dead : forall t (ix : itbl) (f : path * list name -> bool),
  (forall e, In e ix -> f e = false -> has_node t (fst e) = false) -> prune_idx t ix = prune_idx t (filter f ix).
Proof. intros t ix f H. unfold prune_idx. do 2 f_equal. now apply filter_dead. Qed.

Lemma prune_ctr_dead : forall t (ct : ctbl) (f : path * N -> bool),
  (forall e, In e ct -> f e = false -> has_node t (fst e) = false) -> prune_ctr t ct = prune_ctr t (filter f ct).
Proof. intros t ct f H. unfold prune_ctr. now apply filter_dead. Qed.

(* ------------------------------------------------------------------ the relation, and pruning on both sides *)

Definition orel (OF OE : oserver) : Prop :=
  xrel s (o_x OF) (o_x OE) /\
  vis_tbl (sdir s (xs_sv (o_x OF))) (o_idx OF) = o_idx OE /\
  vis_tbl (sdir s (xs_sv (o_x OF))) (o_ctr OF) = o_ctr OE /\
  ok OF /\ ok OE.

Lemma sdir_len : forall F d, sdir s F = Some d -> length d = 2.
Proof. intros F d H. unfold sdir in H. destruct (get_session F s); [|discriminate]. cbn in H. injection H as <-. reflexivity. Qed.

Lemma deep_vis : forall (A : Type) od (tb : list (path * A)), deep tb -> deep (vis_tbl od tb).
Proof. intros A od tb D e He. unfold vis_tbl in He. apply filter_In in He as [He _]. now apply D. Qed.

(* tables that agree up to s's entries, around dispatcher states that are related, then pruned on both sides; s is where it
   was in F0 (the state the tables were taken from), or has just gone with its whole subtree *)
Lemma orel_prune : forall (F0 : server) xF xE ixF ctF ixE ctE, xrel s xF xE -> moved F0 (xs_sv xF) ->
  vis_tbl (sdir s F0) ixF = ixE -> vis_tbl (sdir s F0) ctF = ctE -> deep ixF -> deep ctF ->
  orel (oprune (mkO xF ixF ctF)) (oprune (mkO xE ixE ctE)).
Proof.
  intros F0 xF xE ixF ctF ixE ctE X Hm <- <- D1 D2. pose proof (proj1 (proj1 X)) as R.
  split; [exact X|]. unfold oprune. cbn [o_x o_idx o_ctr].
  assert (K : ok (oprune (mkO xF ixF ctF)) /\ ok (oprune (mkO xE (vis_tbl (sdir s F0) ixF) (vis_tbl (sdir s F0) ctF))))
    by (split; apply (oprune_ok (mkO _ _ _)); cbn [o_idx o_ctr]; auto using deep_vis).
  destruct Hm as [Hm|[Hm1 Hm2]].
  - rewrite Hm in *. split; [apply (prune_idx_sim s); [exact R|apply sdir_len|exact D1]|]. split; [apply (prune_ctr_sim s); [exact R|exact D2]|exact K].
  - assert (Hdead : forall A (e : path * A), negb (hidden (sdir s F0) (fst e)) = false -> has_node (sv_tree (xs_sv xF)) (fst e) = false).
    { intros A e He. apply negb_false_iff in He. destruct (sdir s F0) as [d|] eqn:Ed; [|discriminate]. cbn [hidden] in He.
      destruct (has_node (sv_tree (xs_sv xF)) (fst e)) eqn:E; [|reflexivity]. apply has_node_spec in E as [n [Hn Hp]].
      rewrite <- Hp, (Hm2 d n eq_refl Hn) in He. discriminate. }
    rewrite Hm1 in *. rewrite !vis_tbl_none. split; [|split; [|exact K]].
    + rewrite (prune_idx_dead _ ixF (fun e => negb (hidden (sdir s F0) (fst e)))) by (intros e _; apply Hdead).
      pose proof (prune_idx_sim s None _ _ (vis_tbl (sdir s F0) ixF) R ltac:(discriminate) (deep_vis _ _ _ D1)) as H. now rewrite !vis_tbl_none in H.
    + rewrite (prune_ctr_dead _ ctF (fun e => negb (hidden (sdir s F0) (fst e)))) by (intros e _; apply Hdead).
      pose proof (prune_ctr_sim s None _ _ (vis_tbl (sdir s F0) ctF) R (deep_vis _ _ _ D2)) as H. now rewrite !vis_tbl_none in H.
Qed.

Lemma fold_left_map : forall (A B X : Type) (f : X -> B -> X) (g : A -> B) l x,
  fold_left (fun a n => f a (g n)) l x = fold_left f (map g l) x.
Proof. intros A B X f g l. induction l as [|a l IH]; intros x; cbn; [reflexivity|]. apply IH. Qed.

Lemma fold_left_ext_in : forall (A X : Type) (f g : X -> A -> X) l x, (forall a x, In a l -> f x a = g x a) -> fold_left f l x = fold_left g l x.
Proof.
  intros A X f g l. induction l as [|a l IH]; intros x H; cbn [fold_left]; [reflexivity|].
  rewrite (H a x (or_introl eq_refl)). apply IH. intros; apply H; now right.
Qed.

Lemma fold_deep : forall (A X : Type) (f : list (path * X) -> A -> list (path * X)) l tb,
  (forall a tb, In a l -> deep tb -> deep (f tb a)) -> deep tb -> deep (fold_left f l tb).
Proof.
  intros A X f l. induction l as [|a l IH]; intros tb H D; cbn [fold_left]; [exact D|].
  apply IH; [intros; apply H; [now right|assumption]|]. apply H; [now left|exact D].
Qed.

(* the paths a traversal from t's directory visits, on both sides *)
Lemma visit_paths_sim : forall B F E t a a' key, inv B F -> rel s F E -> t <> s ->
  get_session F t = Some a -> sparams a' = sparams a ->
  visit_paths fx (sv_tree E) a' key = visit_paths fx (sv_tree F) a key.
Proof.
  intros B F E t a a' key IF [R _] Ht Ha Hp. unfold visit_paths.
  apply sparams_parts in Hp as [_ [H2 [H3 _]]].
  assert (Hd : session_dir a' = session_dir a) by (unfold session_dir; now rewrite H2, H3). rewrite Hd.
  apply (visits_paths_sim s (sdir s F)); [exact R|discriminate|]. now apply (other_dir_visible s B F t a).
Qed.

(* what the commands of session t (record a on the full side, a' on the erased side) start from *)
Record other (B : nat) (OF OE : oserver) (t : sid) (a a' : session) : Prop := mkOther {
  ot_good : good B (xs_sv (o_x OF)) (xs_sv (o_x OE));
  ot_rel : orel OF OE;
  ot_ne : t <> s;
  ot_F : get_session (xs_sv (o_x OF)) t = Some a;
  ot_E : get_session (xs_sv (o_x OE)) t = Some a'
}.

Lemma other_facts : forall B OF OE t a a', other B OF OE t a a' ->
  s_id a = t /\ s_id a' = t /\ session_dir a' = session_dir a /\ sparams a' = sparams a /\
  forall r, hidden (sdir s (xs_sv (o_x OF))) (session_dir a ++ r) = false.
Proof.
  intros B OF OE t a a' [G O Ht Ha Ha']. pose proof (rel_get_session s _ _ t (proj2 (proj1 (proj1 O))) Ht) as Hg. rewrite Ha, Ha' in Hg.
  pose proof (sparams_parts _ _ Hg) as [_ [G2 [G3 _]]].
  split; [exact (get_session_id _ _ _ Ha)|]. split; [exact (get_session_id _ _ _ Ha')|].
  split; [unfold session_dir; now rewrite G2, G3|]. split; [exact Hg|]. now apply (other_dir_visible s B _ t a (proj1 G)).
Qed.

Lemma do_insert_sim : forall nest (OF OE : oserver) a a' key items t B, small B -> other B OF OE t a a' ->
  orel (do_insert fx iname nest OF a key items) (do_insert fx iname nest OE a' key items).
Proof.
  intros nest OF OE a a' key items t B HB Ot. destruct (other_facts _ _ _ _ _ _ Ot) as [Hida [Hida' [Hd [Hg Hv]]]].
  destruct Ot as [G [X [HI [HC [KF KE]]]] Ht Ha Ha']. pose proof (proj1 X) as R.
  set (od := sdir s (xs_sv (o_x OF))) in *.
  unfold do_insert. cbv zeta. rewrite (visit_paths_sim B _ _ t a a' key (proj1 G) R Ht Ha Hg), Hd, Hida, Hida'.
  set (ps := visit_paths fx (sv_tree (xs_sv (o_x OF))) a key).
  assert (Hbelow : forall p, In p ps -> 2 <= length p /\ forall r, hidden od (p ++ r) = false).
  { intros p Hp. apply visit_paths_below in Hp as [r [Hr ->]]. split; [rewrite app_length, session_dir_len; lia|].
    intros r'. rewrite <- app_assoc. apply Hv. }
  (* the same plans *)
  rewrite (map_ext_in (fun p => (p, plan_names iname (sv_tree (xs_sv (o_x OE))) p (ctr_get (o_ctr OE) p) items))
                      (fun p => (p, plan_names iname (sv_tree (xs_sv (o_x OF))) p (ctr_get (o_ctr OF) p) items))).
  2:{ intros p Hp. destruct (Hbelow p Hp) as [Hl Hvp]. f_equal.
      rewrite <- HC, vis_ctr_get by (rewrite <- (app_nil_r p); apply Hvp). now apply (plan_names_sim iname s od _ _ _ _ _ (proj1 R)). }
  set (plans := map (fun p => (p, plan_names iname (sv_tree (xs_sv (o_x OF))) p (ctr_get (o_ctr OF) p) items)) ps).
  assert (Hpl : forall pl : plan, In pl plans -> 2 <= length (fst pl) /\ forall r, hidden od (fst pl ++ r) = false).
  { intros pl Hpl. unfold plans in Hpl. apply in_map_iff in Hpl as [p [<- Hp]]. cbn [fst]. now apply Hbelow. }
  match goal with |- orel (oprune (mkO (xhandle fx nest _ _ ?c) _ _)) _ => set (sc := c) end.
  pose proof (xhandle_sim fx guard_on s sc nest (o_x OF) (o_x OE) t B ltac:(now rewrite Nat.add_0_r) G X Ht) as X'.
  destruct (xhandle_keeps fx s sc nest (o_x OF) t) as [_ [_ Hsd]]. fold od in Hsd.
  pose proof (proj1 (proj1 X')) as R1'. rewrite Hsd in R1'.
  apply (orel_prune (xs_sv (o_x OF))); [exact X'|now left| | | |].
  - apply (fold_sim plan itbl itbl (fun x y => vis_tbl od x = y)); [|exact HI].
    intros pl x y Hin Hxy. destruct (Hpl pl Hin) as [Hl Hvp].
    assert (Hvis : hidden od (fst pl) = false) by (rewrite <- (app_nil_r (fst pl)); apply Hvp).
    rewrite vis_idx_set by exact Hvis. rewrite Hxy. f_equal. rewrite <- Hxy, vis_idx_get by exact Hvis.
    apply fold_left_ext_in. intros e l0 _.
    rewrite (rel_has_node s od _ _ (fst pl ++ [fst (fst e)]) R1'); [reflexivity| |apply Hvp]. rewrite app_length. cbn. lia.
  - apply (fold_sim plan ctbl ctbl (fun x y => vis_tbl od x = y)); [|exact HC].
    intros pl x y Hin Hxy. destruct (Hpl pl Hin) as [Hl Hvp]. rewrite vis_ctr_set by (rewrite <- (app_nil_r (fst pl)); apply Hvp). now rewrite Hxy.
  - apply fold_deep; [|apply KF]. intros pl tb Hin D. apply deep_idx_set; [exact D|apply (Hpl pl Hin)].
  - apply fold_deep; [|apply KF]. intros pl tb Hin D. apply deep_ctr_set; [exact D|apply (Hpl pl Hin)].
Qed.

Lemma reorder_one_ext : forall t t' l parent nm b, (forall k, has_node t' (parent ++ [k]) = has_node t (parent ++ [k])) ->
  reorder_one t' l parent nm b = reorder_one t l parent nm b.
Proof. intros t t' l parent nm b H. unfold reorder_one. destruct b as [k|]; [now rewrite H|reflexivity]. Qed.

Lemma do_reorder_sim : forall (OF OE : oserver) a a' fields t B, other B OF OE t a a' ->
  orel (do_reorder fx OF a fields) (do_reorder fx OE a' fields).
Proof.
  intros OF OE a a' fields t B Ot. destruct (other_facts _ _ _ _ _ _ Ot) as [_ [_ [_ [Hg Hv]]]].
  destruct Ot as [G [X [HI [HC [KF KE]]]] Ht Ha Ha']. pose proof (proj1 X) as R.
  set (od := sdir s (xs_sv (o_x OF))) in *.
  unfold do_reorder. cbv zeta. apply (orel_prune (xs_sv (o_x OF))); [exact X|now left| |exact HC| |apply KF].
  - apply (fold_sim _ itbl itbl (fun x y => vis_tbl od x = y)); [|exact HI]. intros f x y _ Hxy.
    rewrite (visit_paths_sim B _ _ t a a' (fst f, None) (proj1 G) R Ht Ha Hg).
    apply (fold_sim path itbl itbl (fun x y => vis_tbl od x = y)); [|exact Hxy].
    intros p x0 y0 Hp H0. apply visit_paths_below in Hp as [r [Hr ->]]. unfold reorder_at. cbv zeta.
    rewrite removelast_app by exact Hr.
    assert (Hvis : hidden od (session_dir a ++ removelast r) = false) by apply Hv.
    rewrite vis_idx_set by exact Hvis. rewrite H0. f_equal. rewrite <- H0, vis_idx_get by exact Hvis.
    symmetry. apply reorder_one_ext. intros k. apply (rel_has_node s od); [exact (proj1 R)| |rewrite <- app_assoc; apply Hv].
    rewrite !app_length, session_dir_len. cbn. lia.
  - apply fold_deep; [|apply KF]. intros f tb _ D. apply fold_deep; [|exact D]. intros p tb0 Hp D0.
    now apply (proj2 (reorder_at_inside fx _ (snd f) a (fst f, None) p tb0 Hp)).
Qed.

Lemma opush_sim : forall OF OE : oserver, orel OF OE -> orel (opush OF) (opush OE).
Proof.
  intros OF OE [X [HI [HC [KF KE]]]]. pose proof X as [R PDK].
  assert (Hsd : sdir s (xs_sv (o_x (opush OF))) = sdir s (xs_sv (o_x OF))) by (apply (sdir_params s), push_all_same).
  split; [|rewrite Hsd; split; [exact HI|split; [exact HC|]]].
  - split; [|exact PDK]. cbn [opush o_x xs_sv with_sv]. eapply rel_same_state; [apply push_all_same|apply push_all_same|exact R].
  - split; [apply (opush_frame s [] OF KF)|apply (opush_frame s [] OE KE)].
Qed.

(* SETDATA with ADDTOINDEX on both sides, item by item *)
Definition item_rel (B : nat) (od : option path) (OF OE : oserver) : Prop :=
  xrel s (o_x OF) (o_x OE) /\ vis_tbl od (o_idx OF) = o_idx OE /\ vis_tbl od (o_ctr OF) = o_ctr OE /\
  deep (o_idx OF) /\ deep (o_ctr OF) /\ good B (xs_sv (o_x OF)) (xs_sv (o_x OE)) /\ sdir s (xs_sv (o_x OF)) = od.

Lemma set_idx_item_sim : forall nest a a' flags t B od OF OE it, small B -> t <> s ->
  s_id a = t -> s_id a' = t -> session_dir a' = session_dir a -> (forall r, hidden od (session_dir a ++ r) = false) ->
  item_rel B od OF OE -> item_rel B od (set_idx_item fx nest a flags OF it) (set_idx_item fx nest a' flags OE it).
Proof.
  intros nest a a' flags t B od OF OE it HB Ht Hia Hia' Hd Hv (X & HI & HC & DI & DC & G & Hod).
  unfold set_idx_item. cbv zeta. rewrite Hd, Hia, Hia'.
  set (sc := XSetData (N.setbit flags c_SETDATANODE_FLAG_DONTOVERWRITEDATA) [it]).
  assert (HB0 : small (B + xcmd_budget sc)) by (cbn [sc xcmd_budget]; now rewrite Nat.add_0_r).
  pose proof (xhandle_sim fx guard_on s sc nest (o_x OF) (o_x OE) t B HB0 G X Ht) as X'.
  pose proof (xhandle_good fx guard_on s sc nest (o_x OF) (o_x OE) t B HB0 G) as G'. cbn [sc xcmd_budget] in G'. rewrite Nat.add_0_r in G'.
  destruct (xhandle_keeps fx s sc nest (o_x OF) t) as [_ [_ Hsd]]. rewrite Hod in Hsd.
  pose proof (proj1 (proj1 X')) as R1'. rewrite Hsd in R1'. pose proof (proj1 (proj1 X)) as R1. rewrite Hod in R1.
  set (p := session_dir a ++ snd (fst it)).
  assert (Hlp : 2 <= length p) by (unfold p; rewrite app_length, session_dir_len; lia).
  rewrite (rel_has_node s od _ _ p R1 Hlp (Hv _)), (rel_has_node s od _ _ p R1' Hlp (Hv _)).
  split; [exact X'|]. cbn [o_x o_idx o_ctr]. split; [|split; [exact HC|split; [|split; [exact DC|split; [exact G'|exact Hsd]]]]].
  - destruct (_ && has_node _ p); [|exact HI].
    rewrite vis_idx_set by apply Hv. rewrite HI. f_equal. f_equal. rewrite <- HI. symmetry. apply vis_idx_get, Hv.
  - destruct (_ && has_node _ p); [|exact DI]. apply deep_idx_set; [exact DI|]. rewrite app_length, session_dir_len. lia.
Qed.

Lemma do_set_idx_sim : forall nest (OF OE : oserver) a a' flags items t B, small B -> other B OF OE t a a' ->
  orel (do_set_idx fx nest OF a flags items) (do_set_idx fx nest OE a' flags items).
Proof.
  intros nest OF OE a a' flags items t B HB Ot. destruct (other_facts _ _ _ _ _ _ Ot) as [Hia [Hia' [Hd [_ Hv]]]].
  destruct Ot as [G [X [HI [HC [KF KE]]]] Ht _ _]. set (od := sdir s (xs_sv (o_x OF))) in *.
  assert (Q : item_rel B od (fold_left (set_idx_item fx nest a flags) items OF) (fold_left (set_idx_item fx nest a' flags) items OE)).
  { apply (fold_sim _ _ _ (item_rel B od)); [intros it x y _; now apply (set_idx_item_sim nest a a' flags t B)|].
    split; [exact X|]. split; [exact HI|]. split; [exact HC|]. split; [apply KF|]. split; [apply KF|]. now split. }
  destruct Q as (X' & HI' & HC' & DI' & DC' & _ & Hsd). unfold do_set_idx.
  destruct (fold_left _ items OF) as [xF1 iF1 cF1]. destruct (fold_left _ items OE) as [xE1 iE1 cE1]. cbn [o_x o_idx o_ctr] in *.
  apply (orel_prune (xs_sv (o_x OF))); auto. now left.
Qed.

Theorem ohandle_sim : forall c nest (OF OE : oserver) t B, small (B + obudget c) -> good B (xs_sv (o_x OF)) (xs_sv (o_x OE)) ->
  orel OF OE -> t <> s -> orel (ohandle fx iname nest OF t c) (ohandle fx iname nest OE t c).
Proof.
  induction c as [xc|k i|f|fl i|l IHl] using ocmd_ind'; intros nest OF OE t B HB G O Ht; cbn [ohandle];
    pose proof (rel_get_session s _ _ t (proj2 (proj1 (proj1 O))) Ht) as Hg;
    (destruct (get_session (xs_sv (o_x OF)) t) as [a|] eqn:Ha; destruct (get_session (xs_sv (o_x OE)) t) as [a'|] eqn:Ha'; try contradiction; [|exact O]);
    pose proof (mkOther B OF OE t a a' G O Ht Ha Ha') as Ot.
  - destruct O as [X [HI [HC [KF KE]]]]. destruct (xhandle_keeps fx s xc nest (o_x OF) t) as [_ [_ Hsd]].
    apply (orel_prune (xs_sv (o_x OF))); [now apply (xhandle_sim fx guard_on s xc _ _ _ t B)|now left|exact HI|exact HC|apply KF|apply KF].
  - cbn [obudget] in HB. rewrite Nat.add_0_r in HB. now apply (do_insert_sim nest OF OE a a' k i t B).
  - now apply (do_reorder_sim OF OE a a' f t B).
  - cbn [obudget] in HB. rewrite Nat.add_0_r in HB. now apply (do_set_idx_sim nest OF OE a a' fl i t B).
  - rewrite obudget_batch in HB. destruct (Nat.ltb nest max_batch_nest); [|exact O]. rewrite !batch_loop.
    clear Ha Ha' Hg Ot. revert OF OE B HB G O.
    induction IHl as [|c l Hc _ IHl']; intros OF OE B HB G O; cbn [fold_left osum] in *; [exact O|].
    assert (HBc : small (B + obudget c)) by (eapply small_le; [|exact HB]; lia).
    apply (IHl' _ _ (B + obudget c)); [now rewrite <- Nat.add_assoc| |apply opush_sim; now apply (Hc (S nest) OF OE t B)].
    apply good_push. apply ohandle_good; [exact HBc|apply O|apply O|exact G].
Qed.

(* ------------------------------------------------------------------ one turn *)

Lemma clear_ducks_xrel : forall B XF XE, small B -> inv B (xs_sv XF) -> inv B (xs_sv XE) -> xrel s XF XE ->
  xrel s (clear_ducks fx XF) (clear_ducks fx XE).
Proof.
  intros B XF XE HB IF IE [R [P [D K]]].
  destruct (clear_ducks_sim fx guard_on s B XF XE HB IF IE R P D) as [R2 P2].
  split; [exact R2|]. split; [exact P2|]. rewrite !clear_ducks_none. split; [apply duck_rel_nil|].
  unfold nokick_s, clear_ducks. rewrite priv_fold_xdetach. apply (nokick_s_filter s (fun j => negb (sid_mem j (xs_ducks XF)))). exact K.
Qed.

Lemma clear_ducks_moved : forall B X, small B -> inv B (xs_sv X) -> moved (xs_sv X) (xs_sv (clear_ducks fx X)).
Proof. intros B X HB I. unfold clear_ducks. rewrite sv_fold_xdetach. now apply (detach_all_moved B). Qed.

Definition oev_of (ev : oevent) : sid := match ev with OAttach k _ _ _ => k | ODetach k => k | OCmd k _ => k end.

(* the skeleton of an event for the conditions on histories of Refl/IsoRun.v and Refl/IsoAsIf.v *)
Definition xev (ev : oevent) : xevent :=
  match ev with OAttach k h nm b => XAttach k h nm b | ODetach k => XDetach k | OCmd k _ => XCmd k (XBatch []) end.

Definition owf_event (os : oserver) (ev : oevent) : Prop := xwf_event (o_x os) (xev ev).
Definition onm_event (os : oserver) (ev : oevent) : Prop := xnm_event (o_x os) (xev ev).
Definition oev_nokick (ev : oevent) : Prop := ev_nokick s (xev ev).

Fixpoint owf_run (os : oserver) (evs : list oevent) : Prop :=
  match evs with [] => True | ev :: r => owf_event os ev /\ owf_run (ostep fx iname os ev) r end.
Fixpoint onm_run (os : oserver) (evs : list oevent) : Prop :=
  match evs with [] => True | ev :: r => onm_event os ev /\ onm_run (ostep fx iname os ev) r end.

(* what a turn keeps of the dispatcher part *)
Lemma ostep_keeps : forall ev (os : oserver) B, small (B + oev_budget ev) -> inv B (xs_sv (o_x os)) -> ok os -> owf_event os ev ->
  inv (B + oev_budget ev) (xs_sv (o_x (ostep fx iname os ev))) /\
  (hosts_ok (xs_sv (o_x os)) -> hosts_ok (xs_sv (o_x (ostep fx iname os ev)))) /\
  (names_ok (xs_sv (o_x os)) -> onm_event os ev -> names_ok (xs_sv (o_x (ostep fx iname os ev)))) /\
  (xs_ducks (o_x os) = [] -> xs_ducks (o_x (ostep fx iname os ev)) = []).
Proof.
  intros ev os B HB I Hok Hwf.
  assert (Hx : forall xe, xev_budget xe = 0 -> xwf_event (o_x os) xe ->
               inv (B + 0) (xs_sv (xstep fx (o_x os) xe)) /\ (hosts_ok (xs_sv (o_x os)) -> hosts_ok (xs_sv (xstep fx (o_x os) xe))) /\
               (names_ok (xs_sv (o_x os)) -> xnm_event (o_x os) xe -> names_ok (xs_sv (xstep fx (o_x os) xe))) /\
               (xs_ducks (o_x os) = [] -> xs_ducks (xstep fx (o_x os) xe) = [])).
  { intros xe H0 Hw. destruct (xstep_keeps fx guard_on s xe (o_x os) B) as [A1 [A2 A3]]; rewrite ?H0; auto.
    - eapply small_le; [|exact HB]. lia.
    - rewrite H0 in A1. exact (conj A1 (conj A2 (conj A3 (xstep_no_ducks fx _ xe)))). }
  destruct ev as [k h nm b|k|k c]; cbn [ostep oev_budget oprune o_x] in *; [exact (Hx (XAttach k h nm b) eq_refl Hwf)|exact (Hx (XDetach k) eq_refl Hwf)|].
  destruct (get_session (xs_sv (o_x os)) k) as [a|] eqn:Ha; [|split; [apply (inv_weaken B); [lia|exact I]|]; split; [auto|split; auto]].
  cbv zeta. cbn [oprune o_x].
  assert (I1 : inv (B + obudget c) (xs_sv (o_x (opush (ohandle fx iname 0 os k c)))))
    by (cbn [opush o_x xs_sv with_sv]; eapply inv_same_core; [apply push_all_core|now apply ohandle_inv]).
  destruct (ohandle_keeps c 0 os k Hok) as [K1 [K2 _]].
  split; [now apply (clear_ducks_inv fx guard_on)|]. split; [|split; [|intros _; apply clear_ducks_none]].
  - intros H. apply (hosts_ok_clear_ducks fx guard_on (B + obudget c)); [exact HB|exact I1|].
    eapply hosts_ok_same_state; [apply push_all_same|now apply K1].
  - intros H _. apply names_ok_clear_ducks. apply (names_ok_idents (xs_sv (o_x (ohandle fx iname 0 os k c)))); [apply all_params_idents, push_all_same|now apply K2].
Qed.

(* a turn for another session, on both sides *)
Lemma ostep_other : forall ev (OF OE : oserver) B, small (B + oev_budget ev) -> good B (xs_sv (o_x OF)) (xs_sv (o_x OE)) ->
  orel OF OE -> oev_of ev <> s -> owf_event OF ev -> onm_event OF ev ->
  orel (ostep fx iname OF ev) (ostep fx iname OE ev).
Proof.
  intros ev OF OE B HB G O Ht Hwf Hnm. pose proof O as [X [HI [HC [KF KE]]]].
  assert (Hx : forall xe, xev_budget xe = 0 -> ev_of xe <> s -> xwf_event (o_x OF) xe -> xnm_event (o_x OF) xe ->
               sdir s (xs_sv (xstep fx (o_x OF) xe)) = sdir s (xs_sv (o_x OF)) ->
               orel (oprune (mkO (xstep fx (o_x OF) xe) (o_idx OF) (o_ctr OF))) (oprune (mkO (xstep fx (o_x OE) xe) (o_idx OE) (o_ctr OE)))).
  { intros xe H0 Hne Hw Hn Hsd. apply (orel_prune (xs_sv (o_x OF))); [|now left|exact HI|exact HC|apply KF|apply KF].
    apply (xstep_other fx guard_on s xe (o_x OF) (o_x OE) B); auto. rewrite H0. eapply small_le; [|exact HB]. lia. }
  destruct ev as [t h nm b|t|t c]; cbn [oev_of] in Ht; cbn [ostep].
  - apply (Hx (XAttach t h nm b)); auto. cbn [xstep]. destruct (get_session (xs_sv (o_x OF)) t); [reflexivity|]. cbn [xs_sv xattach]. now apply attach_sdir.
  - apply (Hx (XDetach t)); auto. cbn [xstep xs_sv xdetach]. now apply (detach_sdir fx).
  - pose proof (rel_get_session s _ _ t (proj2 (proj1 X)) Ht) as Hg.
    destruct (get_session (xs_sv (o_x OF)) t) as [a|] eqn:Ha; destruct (get_session (xs_sv (o_x OE)) t) as [a'|] eqn:Ha'; try contradiction; [|exact O].
    cbv zeta. cbn [oev_budget] in HB.
    pose proof (opush_sim _ _ (ohandle_sim c 0 OF OE t B HB G O Ht)) as O2.
    destruct (good_push _ _ _ (ohandle_good c 0 OF OE t B HB KF KE G)) as (IF1 & IE1 & _).
    set (F1 := opush (ohandle fx iname 0 OF t c)) in *. set (E1 := opush (ohandle fx iname 0 OE t c)) in *.
    destruct O2 as [X2 [HI2 [HC2 [KF2 KE2]]]].
    apply (orel_prune (xs_sv (o_x F1))); [now apply (clear_ducks_xrel (B + obudget c))|now apply (clear_ducks_moved (B + obudget c))|exact HI2|exact HC2|apply KF2|apply KF2].
Qed.

(* s without PR_PRIVILEGE_KICK marks nobody, whatever it sends *)
Lemma ohandle_self_quiet : forall c nest (os : oserver), quiet_s s (o_x os) (o_x (ohandle fx iname nest os s c)).
Proof.
  induction c as [xc|k i|f|fl i|l IHl] using ocmd_ind'; intros nest os; cbn [ohandle];
    (destruct (get_session (xs_sv (o_x os)) s) as [a|] eqn:Ha; [|apply quiet_s_refl]).
  - apply (xhandle_self_quiet fx s).
  - cbn [do_insert oprune o_x]. rewrite (get_session_id _ _ _ Ha). apply (xhandle_self_quiet fx s).
  - apply quiet_s_refl.
  - cbn [do_set_idx oprune o_x]. apply (fold_chain _ _ (fun a b : oserver => quiet_s s (o_x a) (o_x b))); [intros; apply quiet_s_refl|intros x y z; apply quiet_s_trans|].
    intros os' it _. cbn [set_idx_item o_x]. rewrite (get_session_id _ _ _ Ha). apply (xhandle_self_quiet fx s).
  - destruct (Nat.ltb nest max_batch_nest); [|apply quiet_s_refl]. rewrite batch_loop.
    apply (fold_chain _ _ (fun a b : oserver => quiet_s s (o_x a) (o_x b))); [intros; apply quiet_s_refl|intros x y z; apply quiet_s_trans|].
    intros os' c Hc. eapply quiet_s_trans; [apply (proj1 (Forall_forall _ _) IHl c Hc)|now split].
Qed.

(* a turn for s itself: the erased side stands still *)
Lemma ostep_self : forall ev (OF OE : oserver) B, small B -> inv B (xs_sv (o_x OF)) -> orel OF OE -> xs_ducks (o_x OF) = [] ->
  oev_of ev = s -> owf_event OF ev -> oev_nokick ev -> orel (ostep fx iname OF ev) OE.
Proof.
  intros ev OF OE B HB0 IF O D0 Ht Hwf Hnk. pose proof O as [X [HI [HC [KF KE]]]]. pose proof X as [R [P [D K]]].
  assert (HE0 : oprune (mkO (o_x OE) (o_idx OE) (o_ctr OE)) = OE) by (destruct OE; now apply oprune_id).
  destruct ev as [t h nm b|t|t c]; cbn [oev_of] in Ht; subst t; cbn [ostep].
  - (* s arrives *)
    unfold owf_event in Hwf. cbn [xev xwf_event] in Hwf.
    pose proof (xstep_self fx guard_on s (XAttach s h nm b) (o_x OF) (o_x OE) B IF X D0 eq_refl Hwf Hnk) as X'. cbn [xstep] in *.
    destruct (get_session (xs_sv (o_x OF)) s) as [a|] eqn:Ha; [destruct OF; now rewrite oprune_id|].
    assert (Hsd : sdir s (xs_sv (o_x OF)) = None) by (unfold sdir; now rewrite Ha). rewrite Hsd, !vis_tbl_none in HI, HC.
    rewrite <- HE0. apply (orel_prune (attach (xs_sv (o_x OF)) s h nm)); [exact X'|now left| | |apply KF|apply KF];
      rewrite attach_sdir_self by exact Ha; (etransitivity; [|eassumption]); apply filter_id; intros e He; apply negb_true_iff; cbn [hidden].
    + destruct (proj1 (proj2 (proj2 KF)) e He) as [Hn _]. apply has_node_spec in Hn as [n [Hn <-]]. now apply (fresh_dir_empty B (xs_sv (o_x OF))).
    + pose proof (proj2 (proj2 (proj2 KF)) e He) as Hn. apply has_node_spec in Hn as [n [Hn <-]]. now apply (fresh_dir_empty B (xs_sv (o_x OF))).
  - (* s leaves *)
    pose proof (xstep_self fx guard_on s (XDetach s) (o_x OF) (o_x OE) B IF X D0 eq_refl I I) as X'. cbn [xstep] in X'.
    rewrite <- HE0. apply (orel_prune (xs_sv (o_x OF))); [exact X'| |exact HI|exact HC|apply KF|apply KF].
    exact (detach_all_moved B [s] (xs_sv (o_x OF)) HB0 IF).
  - (* s sends a command *)
    destruct (get_session (xs_sv (o_x OF)) s) as [a|] eqn:Ha; [|exact O]. cbv zeta.
    pose proof (ohandle_frame fx iname c 0 OF s a Ha KF) as F1.
    pose proof (oframe_trans _ _ _ _ _ F1 (opush_frame s (session_dir a) _ (proj2 (proj2 (proj2 F1))))) as F12.
    destruct (ohandle_self_quiet c 0 OF K) as [Dk Kk].
    set (F1' := opush (ohandle fx iname 0 OF s c)) in *.
    assert (Hd1 : xs_ducks (o_x F1') = []) by (cbn [F1' opush o_x xs_ducks with_sv]; congruence).
    rewrite clear_ducks_nil by exact Hd1. destruct F12 as [[Fr [Pr _]] [FI [FC Fok]]].
    replace (mkO (o_x F1') (o_idx F1') (o_ctr F1')) with F1' by (destruct F1'; reflexivity). rewrite oprune_id by exact Fok.
    assert (Hsd : sdir s (xs_sv (o_x OF)) = Some (session_dir a)) by (unfold sdir; now rewrite Ha).
    assert (Hsd1 : sdir s (xs_sv (o_x F1')) = Some (session_dir a)) by (rewrite <- Hsd; apply (sdir_idents s), Fr).
    rewrite Hsd in HI, HC. split; [|rewrite Hsd1; split; [|split; [|split; [exact Fok|exact KE]]]].
    + split; [apply (rel_frame s (xs_sv (o_x OF)) _ _ a); [exact R|exact Ha|exact Fr]|].
      split; [now rewrite Pr|]. split; [rewrite Hd1; rewrite D0 in D; exact D|exact Kk].
    + etransitivity; [exact FI|exact HI].
    + etransitivity; [exact FC|exact HC].
Qed.

(* ------------------------------------------------------------------ whole histories *)

Definition oerase (evs : list oevent) : list oevent := filter (fun ev => negb (N.eqb (oev_of ev) s)) evs.

Theorem osim_run : forall evs (OF OE : oserver) B, small (B + orun_budget evs) -> good B (xs_sv (o_x OF)) (xs_sv (o_x OE)) ->
  orel OF OE -> xs_ducks (o_x OF) = [] -> owf_run OF evs -> onm_run OF evs -> Forall oev_nokick evs ->
  orel (orun fx iname evs OF) (orun fx iname (oerase evs) OE) /\ inv (B + orun_budget evs) (xs_sv (o_x (orun fx iname evs OF))).
Proof.
  induction evs as [|ev evs IH]; intros OF OE B HB G O D0 Hwf Hnm Hnk; cbn [orun fold_left oerase filter orun_budget] in *.
  - rewrite Nat.add_0_r. split; [exact O|apply G].
  - destruct Hwf as [Hw1 Hw2]. destruct Hnm as [Hm1 Hm2]. inversion Hnk as [|? ? Hn1 Hn2]; subst.
    assert (HBe : small (B + oev_budget ev)) by (eapply small_le; [|exact HB]; lia).
    assert (HB0 : small B) by (eapply small_le; [|exact HB]; lia).
    pose proof G as (IF & IE & HF & HE & NF). pose proof O as [X [_ [_ [KF KE]]]].
    destruct (ostep_keeps ev OF B HBe IF KF Hw1) as [IF' [HF' [NF' D0']]].
    rewrite Nat.add_assoc.
    destruct (N.eqb (oev_of ev) s) eqn:Es; cbn [negb].
    + apply N.eqb_eq in Es. apply (IH _ _ (B + oev_budget ev)); auto; [now rewrite <- Nat.add_assoc| |now apply (ostep_self ev OF OE B)].
      assert (IE' : inv (B + oev_budget ev) (xs_sv (o_x OE))) by (apply (inv_weaken B); [lia|exact IE]).
      exact (conj IF' (conj IE' (conj (HF' HF) (conj HE (NF' NF Hm1))))).
    + apply N.eqb_neq in Es. cbn [fold_left].
      assert (Hw1E : owf_event OE ev) by (unfold owf_event in *; eapply (erased_wf_event s); [exact (proj2 (proj1 X))|exact Hw1]).
      destruct (ostep_keeps ev OE B HBe IE KE Hw1E) as [IE' [HE' _]].
      apply (IH _ _ (B + oev_budget ev)); auto; [now rewrite <- Nat.add_assoc| |now apply (ostep_other ev OF OE B)].
      exact (conj IF' (conj IE' (conj (HF' HF) (conj (HE' HE) (NF' NF Hm1))))).
Qed.

Lemma orel_empty : orel empty_oserver empty_oserver.
Proof.
  split; [apply (xrel_empty s)|]. split; [reflexivity|]. split; [reflexivity|]. split; apply ok_empty.
Qed.

(* AS IF NEVER with ordered children.  For every history of the model of Refl/IsoOrd.v in which s is never granted
   PR_PRIVILEGE_KICK (premises as for as_if_never): let s's connection end after it and compare with the history from which
   everything s did has been erased.  As before the trees agree below host level, the sessions and privileges are the same;
   and the ordered indices and the name counters of ALL nodes are the same tables: the others' INSERTORDEREDDATA commands
   generated the same child names and built the same indices, whatever s inserted, reordered or removed in its own subtree
   and whatever it aimed at theirs. *)
Theorem o_as_if_never : forall evs,
  small (orun_budget evs) -> owf_run empty_oserver evs -> onm_run empty_oserver evs -> Forall oev_nokick evs ->
  let OF := ostep fx iname (orun fx iname evs empty_oserver) (ODetach s) in
  let OE := orun fx iname (oerase evs) empty_oserver in
  body (sv_tree (xs_sv (o_x OF))) = body (sv_tree (xs_sv (o_x OE))) /\
  all_params (xs_sv (o_x OF)) = all_params (xs_sv (o_x OE)) /\
  xs_priv (o_x OF) = xs_priv (o_x OE) /\
  o_idx OF = o_idx OE /\ o_ctr OF = o_ctr OE.
Proof.
  intros evs HB Hwf Hnm Hnk OF OE.
  destruct (osim_run evs empty_oserver empty_oserver 0 HB (good_empty) orel_empty eq_refl Hwf Hnm Hnk) as [O IF]. fold OE in O.
  cbn [Nat.add] in IF. set (F0 := orun fx iname evs empty_oserver) in *.
  assert (D0 : xs_ducks (o_x F0) = []).
  { unfold F0. clear. generalize (@empty_oserver M) (eq_refl : xs_ducks (o_x (@empty_oserver M)) = []). induction evs as [|ev evs IH]; intros os H; [exact H|].
    cbn [orun fold_left]. apply IH. destruct ev as [k h nm b|k|k c]; cbn [ostep oprune o_x].
    - now apply (xstep_no_ducks fx _ (XAttach k h nm b)).
    - now apply (xstep_no_ducks fx _ (XDetach k)).
    - destruct (get_session _ _); [apply clear_ducks_none|exact H]. }
  assert (HB0 : small (orun_budget evs + 0)) by now rewrite Nat.add_0_r.
  pose proof (ostep_self (ODetach s) F0 OE _ HB IF O D0 eq_refl I I) as [[R [P _]] [HI [HC _]]]. fold OF in R, P, HI, HC.
  assert (IF' : inv (orun_budget evs) (xs_sv (o_x OF))) by (apply (detach_inv fx guard_on); assumption).
  assert (Hnone : get_session (xs_sv (o_x OF)) s = None) by apply (detach_gone fx s).
  destruct (rel_gone s _ _ _ IF' R Hnone) as [H1 H2].
  unfold sdir in HI, HC. rewrite Hnone in HI, HC. cbn [option_map] in HI, HC. rewrite vis_tbl_none in HI, HC.
  split; [exact H1|]. split; [exact H2|]. split; [|split; [exact HI|exact HC]].
  rewrite <- P. cbn [OF ostep oprune o_x xs_priv xdetach]. now rewrite priv_remove_idem.
Qed.

End OSim.
