(* Refl/RouteWitness.v -- concrete histories (over the small MatchOps instance of Refl/TravWitness.v):
   the witnesses of findings F19 (a session is served twice) and F20 (the default route is dead) in the model of the
   code as found, the same histories under the repairs, and a reachable state satisfying the premises of deliver_once. *)
From Coq Require Import List NArith.
From Muscle Require Import Refl.Base Refl.Session Refl.Server Refl.Route Refl.TravBase Refl.TraverseTheorems
  Refl.TravWitness.
Import ListNotations.
Local Open Scope N_scope.

Definition hostn := 10. Definition id0 := 20. Definition id1 := 21. Definition id2 := 22.
Definition na := 1. Definition nb := 2.

Definition lit (k : N) : wclause := Some (false, [k]).
Definition star : wclause := None.

Definition user_msg (tag : N) (keys : list spath) : umsg := mkU 1234 tag keys [] SAbsent.

(* sessions 0, 1, 2 attach; session 1 stores the nodes a and b *)
Definition setup : list revent :=
  [RAttach 0 hostn id0; RAttach 1 hostn id1; RAttach 2 hostn id2;
   RCmd 1 (RSrv (CSetData 0 [([na], 1); ([nb], 2)]))].

(* F19: session 0 sends one Message with the single relative key STAR (three clauses after the default prefix);
   session 1 owns two matching depth-3 nodes *)
Definition f19_history : list revent := setup ++ [RCmd 0 (RMsg (user_msg 7 [Rel [star]]))].

Definition inbox_of (st : rstate) (s : sid) : list dlv :=
  match get_info st s with Some ri => ri_inbox ri | None => [] end.

Lemma deliver_once_refuted_as_found_lemma :
  exists evs : list revent, exists d : dlv,
    inbox_of (rrun r_as_found evs empty_rstate) 1 = [d; d] /\ inbox_of (rrun r_all_fixed evs empty_rstate) 1 = [d].
Proof. exists f19_history, (mkD 0 7 SAbsent). split; vm_compute; reflexivity. Qed.

(* F20: session 0 sets the default route "b" and sends a Message without keys; only session 1 owns a node b *)
Definition f20_history : list revent :=
  setup ++ [RCmd 0 (RSetParams (mkSP false false false [Rel [lit nb]] None)); RCmd 0 (RMsg (user_msg 8 []))].

Lemma default_route_refuted_as_found_lemma :
  exists evs : list revent, exists d : dlv,
    inbox_of (rrun r_as_found evs empty_rstate) 2 = [d] /\ inbox_of (rrun r_all_fixed evs empty_rstate) 2 = [] /\
    inbox_of (rrun r_all_fixed evs empty_rstate) 1 = [d].
Proof. exists f20_history, (mkD 0 8 SAbsent). repeat split; vm_compute; reflexivity. Qed.

(* a reachable state satisfying the premises of deliver_once *)

Definition setup_state : rstate := rrun r_all_fixed setup empty_rstate.

Lemma setup_state_wf :
  tree_wf (sv_tree (rs_srv setup_state)) /\ NoDup (map s_id (sv_sessions (rs_srv setup_state))) /\
  length (sv_tree (rs_srv setup_state)) = 6%nat /\
  (exists ss ri, get_session (rs_srv setup_state) 0 = Some ss /\ get_info setup_state 0 = Some ri /\ matcher_wf (ri_route ri)).
Proof.
  split; [apply tree_wfb_ok; vm_compute; reflexivity|]. split.
  - vm_compute. repeat constructor; cbn; intuition discriminate.
  - split; [vm_compute; reflexivity|].
    eexists. eexists. split; [vm_compute; reflexivity|]. split; [vm_compute; reflexivity|]. apply empty_matcher_wf.
Qed.
