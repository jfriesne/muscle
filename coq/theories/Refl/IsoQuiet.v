(* Refl/IsoQuiet.v -- C06: a session cannot make the server tell anybody anything about nodes outside its own subtree.
   [mentions sv t]: every node path named (as set or as removed) in a PR_RESULT_DATAITEMS Message that session t holds,
   delivered or pending.  Whatever session s sends, whatever another session t holds afterwards either was there before or
   names a node at or below s's directory. *)
From Coq Require Import List NArith ZArith Bool Arith Lia.
From Muscle Require Import Refl.Base Refl.BaseProofs Refl.Tree Refl.Matcher Refl.Traverse Refl.Session Refl.Server
     Refl.ServerProofs Refl.IsoModel Refl.IsoBase Refl.IsoTrav Refl.IsoFrame.
Import ListNotations.

Section Quiet.
Context {M : MatchOps}.
Variable fx : fixes.

Definition di_paths (d : ditems) : list path := di_removed d ++ map fst (di_sets d).

Definition sess_mentions (x : session) : list path :=
  flat_map di_paths (s_out x) ++ match s_pending x with Some d => di_paths d | None => [] end.

(* the paths held by the session(s) with id t *)
Definition mentions (sv : server) (t : sid) : list path :=
  flat_map (fun x => if N.eqb (s_id x) t then sess_mentions x else []) (sv_sessions sv).

(* relative to sv0, session t holds nothing new in sv except about nodes at or below dir *)
Definition only_about (dir : path) (t : sid) (sv0 sv : server) : Prop :=
  forall p, In p (mentions sv t) -> In p (mentions sv0 t) \/ is_prefix dir p = true.

Lemma only_about_refl : forall dir t sv, only_about dir t sv sv.
Proof. intros dir t sv p H. now left. Qed.

Lemma only_about_trans : forall dir t a b c, only_about dir t a b -> only_about dir t b c -> only_about dir t a c.
Proof. intros dir t a b c H1 H2 p Hp. destruct (H2 p Hp) as [H|H]; [now apply H1|now right]. Qed.

(* ------------------------------------------------------------------ the primitives *)

Lemma in_mentions_id : forall sv x u p, In x (sv_sessions sv) -> s_id x = u -> In p (sess_mentions x) -> In p (mentions sv u).
Proof. intros sv x u p Hx <- Hp. unfold mentions. apply in_flat_map. exists x. split; [exact Hx|]. now rewrite N.eqb_refl. Qed.

(* the sessions rewritten one by one, keeping their ids: what matters is what the sessions with id t hold afterwards *)
Lemma mentions_map : forall dir t sv (g : session -> session) tr dirty,
  (forall x, s_id (g x) = s_id x) ->
  (forall x p, In x (sv_sessions sv) -> s_id x = t -> In p (sess_mentions (g x)) -> In p (mentions sv t) \/ is_prefix dir p = true) ->
  only_about dir t sv (mkServer tr (map g (sv_sessions sv)) dirty).
Proof.
  intros dir t sv g tr dirty Hid Hg p H. unfold mentions in H. cbn [sv_sessions] in H.
  apply in_flat_map in H as [y [Hy Hp]]. apply in_map_iff in Hy as [x [<- Hin]]. rewrite Hid in Hp.
  destruct (N.eqb (s_id x) t) eqn:Et; [|destruct Hp]. apply N.eqb_eq in Et. now apply (Hg x).
Qed.

Lemma sess_mentions_push : forall x p, In p (sess_mentions (push_pending x)) -> In p (sess_mentions x).
Proof.
  intros x p H. unfold push_pending in H. destruct (s_pending x) as [d|] eqn:E; [|exact H].
  unfold sess_mentions in *. cbn [s_out s_pending set_pending send] in H. rewrite E. rewrite flat_map_app in H. cbn [flat_map] in H.
  rewrite app_nil_r, app_nil_r in H. exact H.
Qed.

Lemma only_about_push_all : forall dir t sv, only_about dir t sv (push_all sv).
Proof.
  intros dir t sv. unfold push_all. destruct (sv_dirty sv); [|apply only_about_refl]. apply mentions_map.
  - intros x. unfold push_pending. destruct (s_pending x); reflexivity.
  - intros x p Hx Ht Hp. left. apply (in_mentions_id _ x); [exact Hx|exact Ht|now apply sess_mentions_push].
Qed.

(* an update of the sessions with id u after which they hold at most what was held under that id before, plus the path q *)
Lemma only_about_upd : forall dir t sv u (f : session -> session) q,
  (forall x, s_id (f x) = s_id x) ->
  (forall x p, In x (sv_sessions sv) -> s_id x = u -> In p (sess_mentions (f x)) -> In p (mentions sv u) \/ p = q) ->
  (u = t -> is_prefix dir q = true) ->
  only_about dir t sv (upd_session sv u f).
Proof.
  intros dir t sv u f q Hid Hf Hq. unfold upd_session. apply mentions_map.
  - intros x. destruct (N.eqb (s_id x) u); [apply Hid|reflexivity].
  - intros x p Hx Ht Hp. destruct (N.eqb (s_id x) u) eqn:Eu; [|left; now apply (in_mentions_id _ x)].
    apply N.eqb_eq in Eu. destruct (Hf x p Hx Eu Hp) as [H| ->]; [left; congruence|right; apply Hq; congruence].
Qed.

(* an update of somebody else *)
Lemma only_about_upd_other : forall dir t sv u (f : session -> session),
  (forall x, s_id (f x) = s_id x) -> u <> t -> only_about dir t sv (upd_session sv u f).
Proof.
  intros dir t sv u f Hid Hne. unfold upd_session. apply mentions_map.
  - intros x. destruct (N.eqb (s_id x) u); [apply Hid|reflexivity].
  - intros x p Hx Ht Hp. left. destruct (N.eqb (s_id x) u) eqn:Eu; [apply N.eqb_eq in Eu; congruence|now apply (in_mentions_id _ x)].
Qed.

Lemma sets_add_paths : forall l q v r, In r (map fst (sets_add l q v)) -> In r (map fst l) \/ r = q.
Proof.
  induction l as [|[a vs] l IH]; intros q v r H; cbn in H.
  - destruct H as [H|[]]. now right.
  - destruct (path_eqb a q); cbn in H.
    + left. exact H.
    + destruct H as [H|H]; [left; now left|]. destruct (IH q v r H) as [H1|H1]; [left; now right|now right].
Qed.

Lemma di_paths_add_removed : forall d q r, In r (di_paths (di_add_removed d q)) -> In r (di_paths d) \/ r = q.
Proof.
  intros d q r H. unfold di_paths, di_add_removed in *. cbn [di_removed di_sets] in H. rewrite <- app_assoc in H.
  apply in_app_or in H as [H|H]; [left; apply in_or_app; now left|]. cbn in H. destruct H as [H|H]; [now right|]. left. apply in_or_app. now right.
Qed.

Lemma di_paths_add_set : forall d q v r, In r (di_paths (di_add_set d q v)) -> In r (di_paths d) \/ r = q.
Proof.
  intros d q v r H. unfold di_paths, di_add_set in *. cbn [di_removed di_sets] in H.
  apply in_app_or in H as [H|H]; [left; apply in_or_app; now left|].
  destruct (sets_add_paths _ _ _ _ H) as [H1|H1]; [left; apply in_or_app; now right|now right].
Qed.

(* a new pending Message all of whose paths were held before or are q *)
Lemma sess_mentions_set_pending : forall x d' q p, (forall r, In r (di_paths d') -> In r (sess_mentions x) \/ r = q) ->
  In p (sess_mentions (set_pending x (Some d'))) -> In p (sess_mentions x) \/ p = q.
Proof.
  intros x d' q p Hd H. unfold sess_mentions in H. cbn [s_out s_pending set_pending] in H. apply in_app_or in H as [H|H]; [|now apply Hd].
  left. unfold sess_mentions. apply in_or_app. now left.
Qed.

Lemma sess_mentions_set_pending_removed : forall x d q p, (forall r, In r (di_paths d) -> In r (sess_mentions x)) ->
  In p (sess_mentions (set_pending x (Some (di_add_removed d q)))) -> In p (sess_mentions x) \/ p = q.
Proof.
  intros x d q p Hd. apply sess_mentions_set_pending. intros r Hr. destruct (di_paths_add_removed _ _ _ Hr) as [H|H]; [left; now apply Hd|now right].
Qed.

Lemma sess_mentions_set_pending_set : forall x d q v p, (forall r, In r (di_paths d) -> In r (sess_mentions x)) ->
  In p (sess_mentions (set_pending x (Some (di_add_set d q v)))) -> In p (sess_mentions x) \/ p = q.
Proof.
  intros x d q v p Hd. apply sess_mentions_set_pending. intros r Hr. destruct (di_paths_add_set _ _ _ _ Hr) as [H|H]; [left; now apply Hd|now right].
Qed.

Lemma pending_or_new_paths : forall (x : session) r, In r (di_paths (pending_or_new x)) -> In r (sess_mentions x).
Proof.
  intros x r H. unfold pending_or_new in H. unfold sess_mentions. destruct (s_pending x); [apply in_or_app; now right|destruct H].
Qed.

Lemma only_about_set_dirty : forall dir t sv b, only_about dir t sv (set_dirty sv b).
Proof. intros dir t sv b p H. now left. Qed.

Lemma only_about_set_tree : forall dir t sv tr, only_about dir t sv (set_tree sv tr).
Proof. intros dir t sv tr p H. now left. Qed.

(* replacing the pending Message of the sessions with id u by d', all of whose paths come from su's pending Message or are q *)
Lemma upd_pending_agg : forall sv u su d' q x p0, In su (sv_sessions sv) -> s_id su = u -> In x (sv_sessions sv) -> s_id x = u ->
  (forall r, In r (di_paths d') -> In r (di_paths (pending_or_new su)) \/ r = q) ->
  In p0 (sess_mentions (set_pending x (Some d'))) -> In p0 (mentions sv u) \/ p0 = q.
Proof.
  intros sv u su d' q x p0 Hsu Hid Hx Hxu Hd Hp. unfold sess_mentions in Hp. cbn [s_out s_pending set_pending] in Hp.
  apply in_app_or in Hp as [Hp|Hp].
  - left. apply (in_mentions_id _ x); [exact Hx|exact Hxu|]. unfold sess_mentions. apply in_or_app. now left.
  - destruct (Hd p0 Hp) as [H|H]; [|now right]. left. apply (in_mentions_id _ su); [exact Hsu|exact Hid|]. now apply pending_or_new_paths.
Qed.

(* NodeChangedAux for the node q and session u: u learns about q, nobody learns anything else *)
Lemma node_changed_aux_about : forall dir t sv u q d r, (u = t -> is_prefix dir q = true) ->
  only_about dir t sv (node_changed_aux sv u q d r).
Proof.
  intros dir t sv u q d r Hq. unfold node_changed_aux.
  destruct (get_session sv u) as [su|] eqn:Eu; [|apply only_about_refl].
  destruct (get_session_In _ _ _ Eu) as [Hin Hid].
  match goal with |- only_about dir t sv (match get_session ?X u with _ => _ end) => set (sv1 := X) end.
  assert (H1 : only_about dir t sv sv1).
  { subst sv1. destruct r; [destruct (di_has_set (pending_or_new su) q)|].
    - (* flush, then a fresh pending Message holding only q *)
      eapply only_about_trans; [|apply only_about_set_dirty].
      eapply only_about_trans; [|apply (only_about_upd dir t _ u _ q); [reflexivity| |exact Hq]].
      + eapply only_about_trans; [|apply only_about_push_all]. eapply only_about_trans; [|apply only_about_set_dirty].
        apply (only_about_upd dir t sv u _ q); [reflexivity| |exact Hq].
        intros x p0 Hx Hxu Hp. apply (upd_pending_agg sv u su (pending_or_new su) q x p0 Hin Hid Hx Hxu); [|exact Hp]. intros r0 Hr0. now left.
      + intros x p0 Hx Hxu Hp. unfold sess_mentions in Hp. cbn [s_out s_pending set_pending] in Hp. apply in_app_or in Hp as [Hp|Hp].
        * left. apply (in_mentions_id _ x); [exact Hx|exact Hxu|]. unfold sess_mentions. apply in_or_app. now left.
        * cbn in Hp. destruct Hp as [Hp|[]]. now right.
    - eapply only_about_trans; [|apply only_about_set_dirty]. apply (only_about_upd dir t sv u _ q); [reflexivity| |exact Hq].
      intros x p0 Hx Hxu Hp. apply (upd_pending_agg sv u su (di_add_removed (pending_or_new su) q) q x p0 Hin Hid Hx Hxu); [|exact Hp]. apply di_paths_add_removed.
    - eapply only_about_trans; [|apply only_about_set_dirty]. apply (only_about_upd dir t sv u _ q); [reflexivity| |exact Hq].
      intros x p0 Hx Hxu Hp. apply (upd_pending_agg sv u su (di_add_set (pending_or_new su) q d) q x p0 Hin Hid Hx Hxu); [|exact Hp]. apply di_paths_add_set. }
  destruct (get_session sv1 u) as [ss1|]; [|exact H1].
  destruct (s_pending ss1); [|exact H1]. destruct (N.leb _ _); [|exact H1].
  eapply only_about_trans; [exact H1|apply only_about_push_all].
Qed.

(* NotifySubscribersThatNodeChanged for a node at or below dir *)
Lemma notify_changed_about : forall dir t sv by_ q d old r, is_prefix dir q = true ->
  only_about dir t sv (notify_changed sv by_ q d old r).
Proof.
  intros dir t sv by_ q d old r Hq. apply (notify_changed_rule (only_about dir t) (only_about_refl dir t) (only_about_trans dir t)).
  intros. now apply node_changed_aux_about.
Qed.

(* ------------------------------------------------------------------ the handlers *)

Lemma about_steps : forall (C : Type) (f : server -> C -> server) s dir t l,
  (forall sv c, In c l -> lives s dir sv -> frame s dir sv (f sv c) /\ only_about dir t sv (f sv c)) ->
  forall sv, lives s dir sv -> only_about dir t sv (fold_left f l sv).
Proof.
  intros C f s dir t l H sv Hl.
  apply (fold_steps _ _ (fun a b => frame s dir a b /\ only_about dir t a b) (lives s dir) f l); [| | |exact H|exact Hl].
  - intros x. split; [apply frame_refl|apply only_about_refl].
  - intros x y z [F1 A1] [F2 A2]. split; [eapply frame_trans|eapply only_about_trans]; eassumption.
  - intros x y [F _]. exact (frame_lives _ _ _ _ _ F).
Qed.

Lemma about_chain : forall (C : Type) (f : server -> C -> server) dir t l,
  (forall sv c, In c l -> only_about dir t sv (f sv c)) -> forall sv, only_about dir t sv (fold_left f l sv).
Proof. intros C f dir t l. apply fold_chain; [apply only_about_refl|apply only_about_trans]. Qed.

Lemma set_data_loop_about : forall dir t cl sv by_ pp d dc dw q,
  is_prefix dir pp = true -> only_about dir t sv (set_data_loop sv by_ pp cl d dc dw q).
Proof.
  intros dir t. apply (set_data_loop_rule (only_about dir t) (only_about_refl dir t) (only_about_trans dir t) dir);
    intros; try apply only_about_set_tree; now apply notify_changed_about.
Qed.

Lemma remove_subtree_about : forall dir t sv by_ p notify, is_prefix dir p = true -> only_about dir t sv (remove_subtree sv by_ p notify).
Proof.
  intros dir t. apply (remove_subtree_rule (only_about dir t) (only_about_refl dir t) (only_about_trans dir t) dir);
    intros; try apply only_about_set_tree; now apply notify_changed_about.
Qed.

Lemma do_remove_data_about : forall t sv ss keys quiet, only_about (session_dir ss) t sv (do_remove_data fx sv ss keys quiet).
Proof.
  intros t sv ss keys quiet. unfold do_remove_data. apply about_chain. intros sv' q Hq. destruct (has_node _ _); [|apply only_about_refl].
  apply remove_subtree_about.
  pose proof (remove_cb_collects_below (sv_tree sv) (m_of_list keys) (session_dir ss) true (fx_guard fx)) as H.
  rewrite Forall_forall in H. now apply H.
Qed.

(* what goes to the sender itself does not matter to anybody else *)
Lemma getdata_cb_about : forall dir t sv0 s acc n, s <> t ->
  only_about dir t sv0 (snd acc) -> only_about dir t sv0 (snd (fst (getdata_cb s acc n))).
Proof.
  intros dir t sv0 s [rp sv] n Hne Ha. cbn [snd] in Ha. unfold getdata_cb.
  destruct (get_session sv s); [|exact Ha]. destruct (own_node _ _); [exact Ha|]. destruct (N.leb _ _); cbn [fst snd]; [|exact Ha].
  eapply only_about_trans; [exact Ha|]. apply only_about_upd_other; [reflexivity|exact Hne].
Qed.

Lemma do_get_data_about : forall dir t sv s keys, s <> t -> only_about dir t sv (do_get_data fx sv s keys).
Proof.
  intros dir t sv s keys Hne. unfold do_get_data.
  match goal with |- context [do_traversal ?cb ?tr ?m ?r ?u ?g ?a] =>
    pose proof (do_traversal_inv _ cb tr m r u g (fun acc => only_about dir t sv (snd acc))
                  (fun acc n Ha _ _ => getdata_cb_about dir t sv s acc n Hne Ha) a (only_about_refl dir t sv)) as H;
    destruct (do_traversal cb tr m r u g a) as [reply sv1] end.
  cbn [snd] in H. destruct reply; [|exact H]. eapply only_about_trans; [exact H|]. apply only_about_upd_other; [reflexivity|exact Hne].
Qed.

Lemma cqf_traversal_about : forall dir t sv s oldf newf m, s <> t ->
  only_about dir t sv (do_traversal (continue_cb (cqf_cb fx s oldf newf)) (sv_tree sv) m [] false (fx_guard fx) sv).
Proof.
  intros dir t sv s oldf newf m Hne.
  apply (do_traversal_inv _ _ (sv_tree sv) m [] false (fx_guard fx) (fun acc => only_about dir t sv acc)); [|apply only_about_refl].
  intros acc n Ha _ _. unfold continue_cb. cbn [fst]. eapply only_about_trans; [exact Ha|].
  unfold cqf_cb. destruct (Bool.eqb _ _); [apply only_about_refl|]. destruct (get_session acc s); [|apply only_about_refl].
  destruct (_ && _); [apply only_about_refl|]. apply node_changed_aux_about. intros E. congruence.
Qed.

Lemma subscribe_one_about : forall dir t sv s sf, s <> t -> only_about dir t sv (subscribe_one fx sv s sf).
Proof.
  intros dir t sv s sf Hne. unfold subscribe_one. destruct (get_session sv s); [|apply only_about_refl].
  destruct (fix_path (fst sf)); [apply only_about_refl|]. destruct (m_get _ _) as [e|].
  - eapply only_about_trans; [|apply only_about_upd_other; [reflexivity|exact Hne]].
    destruct (snd sf), (e_flt e); try apply only_about_refl; now apply cqf_traversal_about.
  - eapply only_about_trans; [|apply only_about_set_tree]. apply only_about_upd_other; [reflexivity|exact Hne].
Qed.

Lemma unsubscribe_one_about : forall dir t sv s sp, s <> t -> only_about dir t sv (unsubscribe_one fx sv s sp).
Proof.
  intros dir t sv s sp Hne. unfold unsubscribe_one. destruct (get_session sv s); [|apply only_about_refl].
  destruct (m_remove _ _); [|apply only_about_refl].
  eapply only_about_trans; [|apply only_about_set_tree]. apply only_about_upd_other; [reflexivity|exact Hne].
Qed.

Theorem handle_about : forall c nest sv s dir t, lives s dir sv -> s <> t -> only_about dir t sv (handle fx nest sv s c).
Proof.
  induction c as [flags items|q keys|q subs|subs|n| |keys|l IHl] using cmd_ind'; intros nest sv s dir t Hl Hne; cbn [handle];
    (destruct (get_session sv s) as [ss|] eqn:Hs; [|apply only_about_refl]).
  - apply (about_steps _ _ s); [|exact Hl]. intros sv' it _ Hl'. split; [now apply set_data_item_frame|].
    destruct (get_session sv' s) as [ss'|] eqn:Es; [|apply only_about_refl]. destruct (fst it); [apply only_about_refl|].
    unfold set_data_node. rewrite (Hl' ss' Es). apply set_data_loop_about, is_prefix_refl.
  - rewrite <- (Hl ss Hs). apply do_remove_data_about.
  - assert (G : forall sv', only_about dir t sv' (fold_left (fun sv'0 sf => subscribe_one fx sv'0 s sf) subs sv'))
      by (apply about_chain; intros; now apply subscribe_one_about).
    destruct q; [apply G|]. destruct subs as [|sf subs']; [apply G|]. eapply only_about_trans; [apply G|].
    destruct (fx_push fx); [eapply only_about_trans; [apply only_about_push_all|]|]; now apply do_get_data_about.
  - apply about_chain; intros; now apply unsubscribe_one_about.
  - apply only_about_upd_other; [reflexivity|exact Hne].
  - apply only_about_upd_other; [reflexivity|exact Hne].
  - now apply do_get_data_about.
  - destruct (Nat.ltb _ _); [|apply only_about_refl]. rewrite batch_loop. apply (about_steps _ _ s); [|exact Hl].
    intros sv' c Hc Hl'. split.
    + eapply frame_trans; [now apply handle_frame|apply same_state_frame, push_all_same].
    + eapply only_about_trans; [|apply only_about_push_all]. now apply (proj1 (Forall_forall _ _) IHl c Hc).
Qed.

(* ------------------------------------------------------------------ the dispatcher *)

Theorem xhandle_about : forall c nest xs s dir t, lives s dir (xs_sv xs) -> s <> t ->
  only_about dir t (xs_sv xs) (xs_sv (xhandle fx nest xs s c)).
Proof.
  induction c as [b|f i|q k|w k|b| |w k se|l IHl] using xcmd_ind'; intros nest xs s dir t Hl Hne; cbn [xhandle];
    (destruct (get_session (xs_sv xs) s) as [ss|] eqn:Hs; [|apply only_about_refl]); rewrite ?dispatch_sv;
    try apply only_about_refl; try (now apply handle_about).
  destruct (Nat.ltb _ _); [|apply only_about_refl]. rewrite batch_loop.
  apply (fold_steps _ _ (fun a b => xframe s dir a b /\ only_about dir t (xs_sv a) (xs_sv b)) (fun x => lives s dir (xs_sv x)));
    [| | | |exact Hl].
  - intros x. split; [apply xframe_refl|apply only_about_refl].
  - intros x y z [F1 A1] [F2 A2]. split; [eapply xframe_trans|eapply only_about_trans]; eassumption.
  - intros x y [[F _] _]. exact (frame_lives _ _ _ _ _ F).
  - intros xs' c Hc Hl'. split.
    + eapply xframe_trans; [now apply xhandle_xframe_at|apply xframe_push].
    + eapply only_about_trans; [|apply only_about_push_all]. now apply (proj1 (Forall_forall _ _) IHl c Hc).
Qed.

(* NO SPOOFED NEWS.  After a whole turn of the server for a command of an unprivileged session s, whatever another session t
   holds in PR_RESULT_DATAITEMS Messages (delivered or pending) either was there before or is about a node at or below s's
   own directory: s cannot make the server announce, change or retract a node of anybody else in anybody's eyes. *)
Theorem quiet_step : forall xs s c ss t,
  get_session (xs_sv xs) s = Some ss -> s <> t -> unprivileged xs s -> xs_ducks xs = [] ->
  only_about (session_dir ss) t (xs_sv xs) (xs_sv (xstep fx xs (XCmd s c))).
Proof.
  intros xs s c ss t Hs Hne U Hd. pose proof (lives_here _ _ _ Hs) as Hl. cbn [xstep]. rewrite Hs. cbv zeta.
  destruct (xhandle_xframe_at fx c 0 xs s _ Hl) as [_ [_ UD]]. destruct (UD U) as [_ D'].
  rewrite clear_ducks_nil by (cbn [xs_ducks with_sv]; congruence). cbn [xs_sv with_sv].
  eapply only_about_trans; [|apply only_about_push_all]. now apply xhandle_about.
Qed.

End Quiet.
