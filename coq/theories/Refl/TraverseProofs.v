(* Refl/TraverseProofs.v -- NodePathMatcher::DoTraversal (the model of Refl/Traverse.v) as a run over two pure functions:
   [actions] (what CheckChildForTraversal does for one child: the callback and / or the descent, in order) and [procs]
   (which children DoTraversalAux hands to it).  trav_R: with any callback the traversal is the run [R] over them, in
   which the accumulator decides one thing only, where a returned depth makes the traversal unwind; it is the one
   induction over the four loops of the model.  R_fold: a callback that never asks to unwind, except by answering
   "skip to depth sd" on a region it does nothing on, makes the run a fold over the visit list [V]. *)
From Coq Require Import List NArith ZArith Bool Arith Lia.
From Muscle Require Import Refl.Base Refl.Tree Refl.TreeProofs Refl.Matcher Refl.Traverse.
Import ListNotations.

Lemma fold_left_flat_map : forall (A B C : Type) (g : A -> B -> A) (F : C -> list B) (l : list C) (acc : A),
  fold_left g (flat_map F l) acc = fold_left (fun a x => fold_left g (F x) a) l acc.
Proof.
  intros A B C g F l. induction l as [|x l IH]; intros acc; cbn; [reflexivity|].
  now rewrite fold_left_app, IH.
Qed.

Lemma fold_left_cons_rev : forall (B : Type) (l acc : list B), fold_left (fun a n => n :: a) l acc = rev l ++ acc.
Proof.
  intros B l. induction l as [|x l IH]; intros acc; cbn; [reflexivity|].
  rewrite IH, <- app_assoc. reflexivity.
Qed.

Lemma map_flat_map : forall (A B C : Type) (g : B -> C) (F : A -> list B) (l : list A),
  map g (flat_map F l) = flat_map (fun x => map g (F x)) l.
Proof.
  intros A B C g F l. induction l as [|x l IH]; cbn; [reflexivity|]. now rewrite map_app, IH.
Qed.

Section Spec.
Context {M : MatchOps}.
Variable t : tree.
Variable m : matcher.
Variable root_depth : nat.
Variable use_filters : bool.
Variable guard_fixed : bool.

Inductive action := ACall | ARec.

(* the test "this entry matches the child at this level" of CheckChildForTraversal *)
Definition hit (child : node) (rel : nat) (known : option nat) (e : entry) (idx : nat) : bool :=
  (match known with Some k => Nat.eqb idx k | None => false end)
  || cmatch (clause_at e rel) (last_name (n_path child)).

(* the multi-pattern guard in front of the callback *)
Definition guard_ok (child : node) (e : entry) : bool :=
  (single_guard m guard_fixed && (negb use_filters || negb (has_filter e)))
  || matches_node m (n_path child) (if use_filters then Some (n_data child) else None) root_depth.

(* what the loop over all entries does for one child: the callback and/or the descent, in order *)
Fixpoint actions (child : node) (rel : nat) (known : option nat) (es : list entry) (idx : nat)
         (matched recursed : bool) : list action :=
  match es with
  | [] => []
  | e :: es' =>
    if hit child rel known e idx then
      if Nat.eqb (length (e_pat e)) (S rel) then
        if matched then actions child rel known es' (S idx) matched recursed
        else if guard_ok child e
             then ACall :: (if recursed then [] else actions child rel known es' (S idx) true recursed)
             else actions child rel known es' (S idx) matched recursed
      else
        if recursed then actions child rel known es' (S idx) matched recursed
        else ARec :: (if matched then [] else actions child rel known es' (S idx) matched true)
    else actions child rel known es' (S idx) matched recursed
  end.

Definition keys_of (e : entry) (rel : nat) : list name :=
  match ckeys (clause_at e rel) with Some ks => ks | None => [] end.

(* the lookups of the hash-lookup path: the (entry index, key) pairs of the entries from index idx on, in order *)
Fixpoint cands (rel : nat) (es : list entry) (idx : nat) : list (nat * name) :=
  match es with
  | [] => []
  | e :: es' => map (pair idx) (keys_of e rel) ++ cands rel es' (S idx)
  end.

(* the children they hand to CheckChildForTraversal, with the index of the entry whose key found them; [did] = alreadyDid *)
Fixpoint lk_pairs (x : path) (iks : list (nat * name)) (did : list path) : list (node * option nat) * list path :=
  match iks with
  | [] => ([], did)
  | (i, k) :: r =>
    match get_child t x k with
    | Some c =>
      if path_mem (n_path c) did then lk_pairs x r did
      else let q := lk_pairs x r (n_path c :: did) in ((c, Some i) :: fst q, snd q)
    | None => lk_pairs x r did
    end
  end.

Lemma lk_pairs_app : forall x l1 l2 did,
  lk_pairs x (l1 ++ l2) did
  = (fst (lk_pairs x l1 did) ++ fst (lk_pairs x l2 (snd (lk_pairs x l1 did))), snd (lk_pairs x l2 (snd (lk_pairs x l1 did)))).
Proof.
  intros x l1 l2. induction l1 as [|[i k] l1 IH]; intros did; cbn [app lk_pairs fst snd].
  - now destruct (lk_pairs x l2 did).
  - destruct (get_child t x k) as [c|]; [destruct (path_mem (n_path c) did)|]; rewrite IH; reflexivity.
Qed.

(* the children DoTraversalAux processes at the node x, in order *)
Definition procs (x : path) (rel : nat) : list (node * option nat) :=
  if existsb (fun e => is_wild (clause_at e rel)) (active m rel)
  then map (fun c => (c, None)) (children t x)
  else fst (lk_pairs x (cands rel (active m rel) 0) []).

(* the nodes one processed child contributes, given what a descent into it contributes *)
Definition child_visits (W : path -> list node) (rel : nat) (ck : node * option nat) : list node :=
  flat_map (fun a => match a with ACall => [fst ck] | ARec => W (n_path (fst ck)) end)
           (actions (fst ck) rel (snd ck) (active m rel) 0 false false).

(* the nodes the traversal from x calls back on, in order *)
Fixpoint V (fuel : nat) (x : path) : list node :=
  match fuel with
  | 0 => []
  | S f => flat_map (child_visits (V f) (length x - root_depth)) (procs x (length x - root_depth))
  end.


Definition act_nodes (W : path -> list node) (c : node) (l : list action) : list node :=
  flat_map (fun a => match a with ACall => [c] | ARec => W (n_path c) end) l.

Lemma act_nodes_in : forall W c l n, In n (act_nodes W c l) -> n = c \/ In n (W (n_path c)).
Proof.
  intros W c l n H. apply in_flat_map in H as [[|] [_ H]]; [|now right].
  destruct H as [H|[]]. now left.
Qed.

Lemma lk_pairs_in : forall x iks did ck,
  In ck (fst (lk_pairs x iks did)) -> In (fst ck) t /\ exists k, n_path (fst ck) = x ++ [k].
Proof.
  intros x iks. induction iks as [|[i k] r IH]; intros did ck H; cbn [lk_pairs] in H; [destruct H|].
  destruct (get_child t x k) as [c|] eqn:Hc; [|now apply IH in H].
  destruct (path_mem (n_path c) did); [now apply IH in H|].
  destruct H as [H|H]; [|now apply IH in H]. subst ck. apply find_node_some in Hc. cbn. split; [tauto|now exists k].
Qed.

Lemma procs_in : forall x rel ck, In ck (procs x rel) -> In (fst ck) t /\ exists k, n_path (fst ck) = x ++ [k].
Proof.
  intros x rel ck H. unfold procs in H. destruct (existsb _ _); [|now apply lk_pairs_in in H].
  apply in_map_iff in H as [c [E Hc]]. subst ck. now apply children_in.
Qed.

Lemma V_is_below : forall fuel x n, In n (V fuel x) -> In n t /\ exists r, r <> [] /\ n_path n = x ++ r.
Proof.
  induction fuel as [|f IH]; intros x n H; [destruct H|].
  cbn [V] in H. apply in_flat_map in H as [ck [Hck Hn]]. apply procs_in in Hck as [Hct [k Hk]].
  apply act_nodes_in in Hn as [Hn|Hn].
  - subst n. split; [assumption|]. exists [k]. split; [discriminate|assumption].
  - apply IH in Hn as [Hnt [r [_ Hp]]]. split; [assumption|]. exists (k :: r). split; [discriminate|].
    rewrite Hp, Hk, <- app_assoc. reflexivity.
Qed.

Section Continue.
Variable A : Type.
Variable g : A -> node -> A.
Variable W : path -> list node.

Definition run_actions (child : node) (l : list action) (acc : A) : A :=
  fold_left g (flat_map (fun a => match a with ACall => [child] | ARec => W (n_path child) end) l) acc.

Lemma run_actions_child_visits : forall rel ck acc,
  run_actions (fst ck) (actions (fst ck) rel (snd ck) (active m rel) 0 false false) acc
  = fold_left g (child_visits W rel ck) acc.
Proof. reflexivity. Qed.

End Continue.

(* ------------------------------------------------------------------ any callback *)

Section Run.
Variable A : Type.
Variable cb : A -> node -> A * Z.

(* the result of a (sub)traversal: Some d = it unwinds to depth d *)
Definition fin (r : A * option Z) (p : path) : A * Z :=
  match snd r with Some d => (fst r, d) | None => (fst r, Z.of_nat (length p)) end.

(* the actions for one child, with the exits *)
Fixpoint run_x (recW : path -> A -> A * option Z) (c : node) (l : list action) (acc : A) : A * option Z :=
  match l with
  | [] => (acc, None)
  | ACall :: l' =>
    if Z.ltb (snd (cb acc c)) (Z.of_nat (depth c) - 1) then (fst (cb acc c), Some (snd (cb acc c)))
    else run_x recW c l' (fst (cb acc c))
  | ARec :: l' =>
    match snd (recW (n_path c) acc) with
    | Some d => if Z.ltb d (Z.of_nat (depth c) - 1) then (fst (recW (n_path c) acc), Some d)
                else run_x recW c l' (fst (recW (n_path c) acc))
    | None => run_x recW c l' (fst (recW (n_path c) acc))
    end
  end.

Fixpoint run_procs (recW : path -> A -> A * option Z) (rel : nat) (ps : list (node * option nat)) (acc : A) : A * option Z :=
  match ps with
  | [] => (acc, None)
  | ck :: ps' =>
    match snd (run_x recW (fst ck) (actions (fst ck) rel (snd ck) (active m rel) 0 false false) acc) with
    | Some d => run_x recW (fst ck) (actions (fst ck) rel (snd ck) (active m rel) 0 false false) acc
    | None => run_procs recW rel ps' (fst (run_x recW (fst ck) (actions (fst ck) rel (snd ck) (active m rel) 0 false false) acc))
    end
  end.

Fixpoint R (fuel : nat) (x : path) (acc : A) : A * option Z :=
  match fuel with
  | 0 => (acc, None)
  | S f => run_procs (R f) (length x - root_depth) (procs x (length x - root_depth)) acc
  end.

Lemma run_procs_app : forall recW rel l1 l2 acc,
  run_procs recW rel (l1 ++ l2) acc =
  match snd (run_procs recW rel l1 acc) with
  | Some d => run_procs recW rel l1 acc
  | None => run_procs recW rel l2 (fst (run_procs recW rel l1 acc))
  end.
Proof.
  intros recW rel l1. induction l1 as [|ck l1 IH]; intros l2 acc; [reflexivity|].
  cbn [app run_procs].
  destruct (snd (run_x recW (fst ck) (actions (fst ck) rel (snd ck) (active m rel) 0 false false) acc)) eqn:E.
  - rewrite E. reflexivity.
  - apply IH.
Qed.

Section Step.
Variable rec : path -> A -> A * Z.
Variable recW : path -> A -> A * option Z.
Hypothesis rec_spec : forall p acc, rec p acc = fin (recW p acc) p.

Local Notation CE := (check_entries A cb m root_depth use_filters guard_fixed).
Local Notation CC := (check_child A cb m root_depth use_filters guard_fixed).
Local Notation IC := (iter_children A cb m root_depth use_filters guard_fixed).
Local Notation LK := (lookup_keys A cb t m root_depth use_filters guard_fixed).
Local Notation LE := (lookup_entries A cb t m root_depth use_filters guard_fixed).

Lemma ltb_self_false : forall d : nat, Z.ltb (Z.of_nat d) (Z.of_nat d - 1) = false.
Proof. intros d. apply Z.ltb_ge. lia. Qed.

Lemma check_entries_run : forall es child rel known idx matched recursed acc,
  CE rec child rel known es idx matched recursed acc = run_x recW child (actions child rel known es idx matched recursed) acc.
Proof.
  induction es as [|e es IH]; intros child rel known idx matched recursed acc; [reflexivity|].
  cbn [check_entries actions]. unfold hit at 1.
  destruct ((match known with Some k => Nat.eqb idx k | None => false end)
            || cmatch (clause_at e rel) (last_name (n_path child))) eqn:Hhit; [|apply IH].
  destruct (Nat.eqb (length (e_pat e)) (S rel)) eqn:Hterm.
  - destruct matched; [apply IH|]. unfold guard_ok at 1.
    destruct ((single_guard m guard_fixed && (negb use_filters || negb (has_filter e)))
              || matches_node m (n_path child) (if use_filters then Some (n_data child) else None) root_depth) eqn:Hg; [|apply IH].
    cbn [run_x]. destruct (cb acc child) as [acc1 nd] eqn:Hcb. cbn [fst snd].
    destruct (Z.ltb nd (Z.of_nat (depth child) - 1)); [reflexivity|].
    destruct recursed; [reflexivity | apply IH].
  - destruct recursed; [apply IH|].
    cbn [run_x]. rewrite rec_spec. unfold fin.
    destruct (recW (n_path child) acc) as [acc1 [d|]] eqn:Hr; cbn [fst snd].
    + destruct (Z.ltb d (Z.of_nat (depth child) - 1)); [reflexivity|].
      destruct matched; [reflexivity | apply IH].
    + unfold depth. rewrite ltb_self_false. destruct matched; [reflexivity | apply IH].
Qed.

Lemma check_child_run : forall child rel known acc,
  CC rec child rel known acc = run_x recW child (actions child rel known (active m rel) 0 false false) acc.
Proof. intros. unfold check_child. apply check_entries_run. Qed.

Lemma iter_children_run : forall rel cs acc,
  IC rec rel cs acc = run_procs recW rel (map (fun c => (c, None)) cs) acc.
Proof.
  intros rel cs. induction cs as [|c cs IH]; intros acc; [reflexivity|].
  cbn [iter_children map run_procs fst snd]. rewrite check_child_run.
  destruct (run_x recW c (actions c rel None (active m rel) 0 false false) acc) as [acc1 [d|]]; cbn [fst snd]; [reflexivity | apply IH].
Qed.

Lemma lookup_keys_run : forall x rel idx ks did acc,
  fst (fst (LK rec x rel idx ks did acc)) = fst (run_procs recW rel (fst (lk_pairs x (map (pair idx) ks) did)) acc) /\
  snd (LK rec x rel idx ks did acc) = snd (run_procs recW rel (fst (lk_pairs x (map (pair idx) ks) did)) acc) /\
  (snd (run_procs recW rel (fst (lk_pairs x (map (pair idx) ks) did)) acc) = None ->
   snd (fst (LK rec x rel idx ks did acc)) = snd (lk_pairs x (map (pair idx) ks) did)).
Proof.
  intros x rel idx ks. induction ks as [|k ks IH]; intros did acc; [cbn; tauto|].
  cbn [lookup_keys map lk_pairs]. destruct (get_child t x k) as [c|]; [|apply IH].
  destruct (path_mem (n_path c) did); [apply IH|].
  rewrite check_child_run. cbn [fst snd run_procs].
  destruct (run_x recW c (actions c rel (Some idx) (active m rel) 0 false false) acc) as [acc1 [d|]]; cbn [fst snd].
  - repeat split; try reflexivity. intros X. discriminate.
  - apply IH.
Qed.

Lemma lookup_entries_run : forall x rel es idx did acc,
  LE rec x rel es idx did acc = run_procs recW rel (fst (lk_pairs x (cands rel es idx) did)) acc.
Proof.
  intros x rel es. induction es as [|e es IH]; intros idx did acc; [reflexivity|].
  cbn [lookup_entries cands]. fold (keys_of e rel). rewrite lk_pairs_app. cbn [fst]. rewrite run_procs_app.
  destruct (lookup_keys_run x rel idx (keys_of e rel) did acc) as [H1 [H2 H3]].
  destruct (LK rec x rel idx (keys_of e rel) did acc) as [[acc1 did1] o] eqn:E. cbn [fst snd] in H1, H2, H3.
  destruct (run_procs recW rel (fst (lk_pairs x (map (pair idx) (keys_of e rel)) did)) acc) as [acc2 o2] eqn:E2. cbn [fst snd] in *.
  subst acc2 o2. destruct o as [d|]; [reflexivity|].
  rewrite <- (H3 eq_refl). apply IH.
Qed.

End Step.

(* the traversal, whatever the callback returns *)
Theorem trav_R : forall fuel x acc,
  trav A cb t m root_depth use_filters guard_fixed fuel x acc = fin (R fuel x acc) x.
Proof.
  induction fuel as [|f IH]; intros x acc; [reflexivity|].
  cbn [trav R]. unfold procs.
  destruct (existsb (fun e => is_wild (clause_at e (length x - root_depth))) (active m (length x - root_depth))).
  - rewrite (iter_children_run _ (R f) IH). unfold fin.
    destruct (run_procs (R f) (length x - root_depth) (map (fun c => (c, None)) (children t x)) acc) as [a [d|]]; reflexivity.
  - rewrite (lookup_entries_run _ (R f) IH). unfold fin.
    destruct (run_procs (R f) (length x - root_depth) (fst (lk_pairs x (cands (length x - root_depth) (active m (length x - root_depth)) 0) [])) acc) as [a [d|]]; reflexivity.
Qed.

Section Invariant.
Variable P : A -> Prop.
Hypothesis cb_keeps : forall acc n, P acc -> P (fst (cb acc n)).

Lemma run_x_inv : forall recW, (forall p acc, P acc -> P (fst (recW p acc))) ->
  forall c l acc, P acc -> P (fst (run_x recW c l acc)).
Proof.
  intros recW HW c l. induction l as [|a l IH]; intros acc H; [assumption|].
  destruct a; cbn [run_x].
  - destruct (Z.ltb (snd (cb acc c)) (Z.of_nat (depth c) - 1)); cbn [fst]; [now apply cb_keeps | apply IH; now apply cb_keeps].
  - destruct (snd (recW (n_path c) acc)) as [d|].
    + destruct (Z.ltb d (Z.of_nat (depth c) - 1)); cbn [fst]; [now apply HW | apply IH; now apply HW].
    + apply IH. now apply HW.
Qed.

Lemma run_procs_inv : forall recW, (forall p acc, P acc -> P (fst (recW p acc))) ->
  forall rel ps acc, P acc -> P (fst (run_procs recW rel ps acc)).
Proof.
  intros recW HW rel ps. induction ps as [|ck ps IH]; intros acc H; [assumption|].
  cbn [run_procs].
  destruct (snd (run_x recW (fst ck) (actions (fst ck) rel (snd ck) (active m rel) 0 false false) acc)).
  - now apply run_x_inv.
  - apply IH. now apply run_x_inv.
Qed.

Lemma R_invariant : forall fuel x acc, P acc -> P (fst (R fuel x acc)).
Proof.
  induction fuel as [|f IH]; intros x acc H; [assumption|].
  cbn [R]. apply run_procs_inv; [|assumption]. intros p a Ha. now apply IH.
Qed.

End Invariant.

(* ------------------------------------------------------------------ a callback that goes on, outside a region it skips *)

Section Region.
Variable g : A -> node -> A.
Variable skip : path -> bool.
Variable sd : nat.
Variable P : A -> Prop.
Hypothesis skip_ext : forall p r, skip p = true -> skip (p ++ r) = true.
Hypothesis skip_enter : forall p k, skip (p ++ [k]) = true -> skip p = false -> length p <= sd.
Hypothesis cb_go : forall acc n, P acc -> skip (n_path n) = false ->
  exists nd, cb acc n = (g acc n, nd) /\ (Z.of_nat (depth n) - 1 <= nd)%Z /\ P (g acc n).
Hypothesis cb_skip : forall acc n, P acc -> skip (n_path n) = true -> cb acc n = (acc, Z.of_nat sd).

(* the callback's effect on the accumulator: nothing inside the region *)
Definition skip_step (acc : A) (n : node) : A := if skip (n_path n) then acc else g acc n.

Lemma fold_skip_step_P : forall l acc, P acc -> P (fold_left skip_step l acc).
Proof.
  induction l as [|n l IH]; intros acc HP; cbn; auto.
  apply IH. unfold skip_step. destruct (skip (n_path n)) eqn:E; auto.
  destruct (cb_go acc n HP E) as [nd [_ [_ HP']]]. exact HP'.
Qed.

Lemma fold_skip_step_inside : forall l acc, (forall n, In n l -> skip (n_path n) = true) -> fold_left skip_step l acc = acc.
Proof.
  induction l as [|n l IH]; intros acc H; cbn; auto.
  unfold skip_step at 2. rewrite (H n (or_introl eq_refl)). apply IH. intros n' Hn'. apply H. now right.
Qed.

(* what a sub-traversal from p does: outside the region the fold; inside nothing, and it unwinds no further than sd *)
Definition sub_ok (recW : path -> A -> A * option Z) (W : path -> list node) (p : path) : Prop :=
  forall acc, P acc ->
    if skip p
    then fst (recW p acc) = acc /\ (forall d, snd (recW p acc) = Some d -> (Z.of_nat sd <= d)%Z)
    else recW p acc = (fold_left skip_step (W p) acc, None).

Lemma run_x_go : forall recW W c l acc,
  skip (n_path c) = false -> sub_ok recW W (n_path c) -> P acc ->
  run_x recW c l acc = (fold_left skip_step (act_nodes W c l) acc, None).
Proof.
  intros recW W c l acc Hs Hrec. revert acc. induction l as [|a l IH]; intros acc HP; [reflexivity|].
  destruct a; cbn [run_x act_nodes flat_map]; fold (act_nodes W c l).
  - destruct (cb_go acc c HP Hs) as [nd [Hcb [Hnd HP']]]. rewrite Hcb. cbn [fst snd app fold_left].
    replace (Z.ltb nd (Z.of_nat (depth c) - 1)) with false by (symmetry; apply Z.ltb_ge; lia).
    unfold skip_step at 2. rewrite Hs. now apply IH.
  - pose proof (Hrec acc HP) as Hr. rewrite Hs in Hr. rewrite Hr. cbn [fst snd].
    rewrite fold_left_app. apply IH. now apply fold_skip_step_P.
Qed.

(* inside the region an exit goes to sd or above; it is an exit only if that is above the child's parent *)
Lemma run_x_skip : forall recW W c l acc,
  skip (n_path c) = true -> sub_ok recW W (n_path c) -> P acc ->
  fst (run_x recW c l acc) = acc /\
  (forall d, snd (run_x recW c l acc) = Some d -> (Z.of_nat sd <= d < Z.of_nat (depth c) - 1)%Z).
Proof.
  intros recW W c l acc Hs Hrec HP. pose proof (Hrec acc HP) as Hr. rewrite Hs in Hr. destruct Hr as [Hr1 Hr2].
  induction l as [|a l IH]; [split; [reflexivity|discriminate]|].
  destruct a; cbn [run_x].
  - rewrite (cb_skip acc c HP Hs). cbn [fst snd].
    destruct (Z.ltb (Z.of_nat sd) (Z.of_nat (depth c) - 1)) eqn:E; [|exact IH].
    split; [reflexivity|]. intros d Hd. inversion Hd; subst d. apply Z.ltb_lt in E. lia.
  - rewrite Hr1. destruct (snd (recW (n_path c) acc)) as [d|]; [|exact IH].
    destruct (Z.ltb d (Z.of_nat (depth c) - 1)) eqn:E; [|exact IH].
    split; [reflexivity|]. intros d' Hd. inversion Hd; subst d'. apply Z.ltb_lt in E. split; [now apply Hr2|exact E].
Qed.

Section Children.
Variable recW : path -> A -> A * option Z.
Variable W : path -> list node.
Hypothesis rec_all : forall p, sub_ok recW W p.
Hypothesis W_below : forall p n, In n (W p) -> exists r, n_path n = p ++ r.

Lemma run_procs_go : forall x rel ps acc,
  skip x = false -> (forall ck, In ck ps -> exists k, n_path (fst ck) = x ++ [k]) -> P acc ->
  run_procs recW rel ps acc = (fold_left skip_step (flat_map (child_visits W rel) ps) acc, None).
Proof.
  intros x rel ps acc Hx. revert acc. induction ps as [|ck ps IH]; intros acc Hps HP; [reflexivity|].
  destruct (Hps ck (or_introl eq_refl)) as [k Hk].
  set (l := actions (fst ck) rel (snd ck) (active m rel) 0 false false).
  assert (Hc : run_x recW (fst ck) l acc = (fold_left skip_step (child_visits W rel ck) acc, None)).
  { destruct (skip (n_path (fst ck))) eqn:Hs; [|now apply run_x_go].
    (* the child enters the region: its parent is at depth <= sd, so nothing unwinds past it *)
    destruct (run_x_skip recW W (fst ck) l acc Hs (rec_all _) HP) as [H1 H2].
    rewrite fold_skip_step_inside.
    - destruct (run_x recW (fst ck) l acc) as [a [d|]]; cbn [fst snd] in *; subst a; [|reflexivity].
      exfalso. specialize (H2 d eq_refl). rewrite Hk in Hs. pose proof (skip_enter x k Hs Hx).
      unfold depth in H2. rewrite Hk, app_length in H2. cbn in H2. lia.
    - intros n Hn. apply act_nodes_in in Hn as [Hn|Hn]; [now subst n|].
      apply W_below in Hn as [r Hr]. rewrite Hr. now apply skip_ext. }
  cbn [run_procs flat_map]. fold l. rewrite Hc, fold_left_app. cbn [fst snd].
  apply IH; [intros ck' H'; apply Hps; now right|now apply fold_skip_step_P].
Qed.

Lemma run_procs_skip : forall x rel ps acc,
  skip x = true -> (forall ck, In ck ps -> exists k, n_path (fst ck) = x ++ [k]) -> P acc ->
  fst (run_procs recW rel ps acc) = acc /\ (forall d, snd (run_procs recW rel ps acc) = Some d -> (Z.of_nat sd <= d)%Z).
Proof.
  intros x rel ps acc Hx Hps HP. induction ps as [|ck ps IH]; [split; [reflexivity|discriminate]|].
  destruct (Hps ck (or_introl eq_refl)) as [k Hk].
  assert (Hs : skip (n_path (fst ck)) = true) by (rewrite Hk; now apply skip_ext).
  set (l := actions (fst ck) rel (snd ck) (active m rel) 0 false false).
  destruct (run_x_skip recW W (fst ck) l acc Hs (rec_all _) HP) as [H1 H2].
  cbn [run_procs]. fold l. destruct (snd (run_x recW (fst ck) l acc)) as [d|] eqn:E.
  - split; [exact H1|]. intros d' Hd. rewrite E in Hd. inversion Hd; subst d'. now apply H2.
  - rewrite H1. apply IH. intros ck' H'. apply Hps. now right.
Qed.

End Children.

Lemma R_region : forall fuel p, sub_ok (R fuel) (V fuel) p.
Proof.
  induction fuel as [|f IH]; intros p acc HP.
  - cbn. destruct (skip p); [split; [reflexivity|discriminate]|reflexivity].
  - assert (Hb : forall q n, In n (V f q) -> exists r, n_path n = q ++ r).
    { intros q n Hn. apply V_is_below in Hn as [_ [r [_ Hr]]]. now exists r. }
    assert (Hc : forall ck, In ck (procs p (length p - root_depth)) -> exists k, n_path (fst ck) = p ++ [k]).
    { intros ck Hck. now apply procs_in in Hck. }
    cbn [R V]. destruct (skip p) eqn:Hs.
    + now apply (run_procs_skip (R f) (V f) IH p).
    + now apply (run_procs_go (R f) (V f) IH Hb p).
Qed.

Theorem R_fold : forall fuel x acc, skip x = false -> P acc -> R fuel x acc = (fold_left skip_step (V fuel x) acc, None).
Proof. intros fuel x acc Hs HP. pose proof (R_region fuel x acc HP) as H. now rewrite Hs in H. Qed.

End Region.

End Run.

(* a traversal with a callback that always goes on is the fold of the callback over V *)
Lemma trav_continue : forall (A : Type) (g : A -> node -> A) fuel x acc,
  trav A (continue_cb g) t m root_depth use_filters guard_fixed fuel x acc
  = (fold_left g (V fuel x) acc, Z.of_nat (length x)).
Proof.
  intros A g fuel x acc. rewrite trav_R.
  rewrite (R_fold A (continue_cb g) g (fun _ => false) 0 (fun _ => True)); try discriminate; auto.
  intros acc0 n _ _. exists (Z.of_nat (depth n)). repeat split. lia.
Qed.

End Spec.
