(* Refl/IndexProofs.v -- lemmas about the per-node index algebra and the flat tree of Refl/Index.v.
   Index.v has names, paths and prefixes of its own (a name is NI / NX / NS, not a string, and only equality of
   names matters there), so the basic facts about name_eqb, path_eqb, strip_prefix and is_prefix are proved here
   for those definitions; they are not the ones of Refl/BaseProofs.v. *)
From Coq Require Import List Arith Bool Permutation.
Import ListNotations.
From Muscle Require Import Refl.Index.

Lemma fold_left_inv : forall (S A : Type) (P : S -> Prop) (f : S -> A -> S) l,
  (forall s a, P s -> P (f s a)) -> forall s, P s -> P (fold_left f l s).
Proof. intros S A P f l Hf. induction l as [|a l IH]; intros s H; [exact H | apply IH, Hf, H]. Qed.

Lemma NoDup_app_l : forall (A : Type) (l l' : list A), NoDup (l ++ l') -> NoDup l.
Proof.
  induction l as [|a l IH]; intros l' H; [constructor|]. simpl in H. apply NoDup_cons_iff in H. destruct H as [Ha Hl].
  constructor; [intro Hin; apply Ha, in_or_app; left; exact Hin | apply (IH l' Hl)].
Qed.

Lemma name_eqb_eq : forall a b, name_eqb a b = true <-> a = b.
Proof. intros [x|x|x] [y|y|y]; simpl; rewrite ?Nat.eqb_eq; split; congruence. Qed.

Lemma name_eqb_refl : forall a, name_eqb a a = true.
Proof. intro a. apply name_eqb_eq. reflexivity. Qed.

Lemma name_eqP : forall a b, reflect (a = b) (name_eqb a b).
Proof. intros a b. apply iff_reflect. symmetry. apply name_eqb_eq. Qed.

Lemma path_eqb_eq : forall p q, path_eqb p q = true <-> p = q.
Proof.
  induction p as [|a p IH]; intros [|b q]; simpl; try (split; congruence).
  rewrite andb_true_iff, name_eqb_eq, IH. split; [intros [-> ->]; reflexivity | intro H; injection H; auto].
Qed.

Lemma path_eqb_refl : forall p, path_eqb p p = true.
Proof. intro p. apply path_eqb_eq. reflexivity. Qed.

Lemma path_eqP : forall p q, reflect (p = q) (path_eqb p q).
Proof. intros p q. apply iff_reflect. symmetry. apply path_eqb_eq. Qed.

Lemma path_eqb_neq : forall p q, p <> q -> path_eqb p q = false.
Proof. intros p q H. destruct (path_eqP p q); [contradiction | reflexivity]. Qed.

Lemma mem_In : forall k l, mem k l = true <-> In k l.
Proof.
  intros k l. induction l as [|x t IH]; simpl.
  - split; [discriminate | contradiction].
  - rewrite orb_true_iff, IH, name_eqb_eq. reflexivity.
Qed.

Lemma mem_false : forall k l, mem k l = false <-> ~ In k l.
Proof. intros k l. rewrite <- mem_In. symmetry. apply not_true_iff_false. Qed.

Lemma insert_at_perm : forall l i k, Permutation (k :: l) (insert_at l i k).
Proof.
  intros l i k. pose proof (Permutation_middle (firstn i l) (skipn i l) k) as H.
  rewrite firstn_skipn in H. exact H.
Qed.

Lemma insert_at_In : forall l i k x, In x (insert_at l i k) <-> x = k \/ In x l.
Proof.
  intros l i k x. split; intro H.
  - apply (Permutation_in x (Permutation_sym (insert_at_perm l i k))) in H.
    destruct H as [H|H]; [left; symmetry; exact H | right; exact H].
  - apply (Permutation_in x (insert_at_perm l i k)). destruct H as [H|H]; [left; symmetry; exact H | right; exact H].
Qed.

Lemma insert_at_NoDup : forall l i k, NoDup l -> ~ In k l -> NoDup (insert_at l i k).
Proof.
  intros l i k Hn Hk. apply (Permutation_NoDup (insert_at_perm l i k)). constructor; assumption.
Qed.

Lemma insert_at_end : forall l k, insert_at l (length l) k = l ++ [k].
Proof. intros l k. unfold insert_at. rewrite firstn_all, skipn_all. reflexivity. Qed.

Lemma remove_at_perm : forall l i k, nth_error l i = Some k -> Permutation l (k :: remove_at l i).
Proof.
  induction l as [|x t IH]; intros [|i] k H; simpl in H; try discriminate.
  - inversion H; subst. unfold remove_at. simpl. apply Permutation_refl.
  - unfold remove_at. simpl. specialize (IH i k H). unfold remove_at in IH.
    eapply Permutation_trans; [apply perm_skip; exact IH | apply perm_swap].
Qed.

Lemma remove_at_In : forall l i x, In x (remove_at l i) -> In x l.
Proof.
  intros l i x H. unfold remove_at in H. apply in_app_or in H. destruct H as [H|H].
  - rewrite <- (firstn_skipn i l). apply in_or_app. left. exact H.
  - rewrite <- (firstn_skipn (S i) l). apply in_or_app. right. exact H.
Qed.

Lemma remove_at_spec : forall l i k, NoDup l -> nth_error l i = Some k ->
  NoDup (remove_at l i) /\ forall x, In x (remove_at l i) <-> In x l /\ x <> k.
Proof.
  intros l i k Hn E. pose proof (remove_at_perm l i k E) as P.
  pose proof (Permutation_NoDup P Hn) as Hn'. apply NoDup_cons_iff in Hn'. destruct Hn' as [Hk Hr].
  split; [exact Hr|]. intro x. split.
  - intro H. split; [apply (Permutation_in x (Permutation_sym P)); right; exact H | intros ->; exact (Hk H)].
  - intros [H Hne]. apply (Permutation_in x P) in H. destruct H as [H|H]; [congruence | exact H].
Qed.

Lemma remove_at_NoDup : forall l i, NoDup l -> NoDup (remove_at l i).
Proof.
  intros l i H. destruct (nth_error l i) as [k|] eqn:E.
  - apply (remove_at_spec l i k H E).
  - unfold remove_at. apply nth_error_None in E.
    rewrite firstn_all2, skipn_all2, app_nil_r by auto using le_S. exact H.
Qed.

Lemma find_last_some : forall k l i, find_last k l = Some i -> nth_error l i = Some k.
Proof.
  intros k l. induction l as [|x t IH]; intros i H; simpl in H; [discriminate|].
  destruct (find_last k t) as [j|].
  - injection H as <-. apply IH. reflexivity.
  - destruct (name_eqP x k) as [->|]; [|discriminate]. injection H as <-. reflexivity.
Qed.

Lemma find_last_none : forall k l, find_last k l = None <-> ~ In k l.
Proof.
  intros k l. induction l as [|x t IH]; simpl; [split; [intros _ [] | reflexivity]|].
  destruct (find_last k t) as [j|].
  - split; [discriminate|]. intro H. assert (E : Some j = None) by (apply IH; intro Hi; apply H; right; exact Hi).
    discriminate E.
  - destruct (name_eqP x k) as [->|Hne].
    + split; [discriminate | intro H; contradiction H; left; reflexivity].
    + split; [|reflexivity]. intros _ [H|H]; [contradiction | exact (proj1 IH eq_refl H)].
Qed.

Lemma find_last_lt : forall k l i, find_last k l = Some i -> i < length l.
Proof.
  intros k l i H. apply find_last_some in H. apply nth_error_Some. congruence.
Qed.

Lemma target_pos_le : forall b l, target_pos b l <= length l.
Proof.
  intros [| |x] l; simpl; try apply le_n.
  destruct (find_last x l) as [i|] eqn:E; [apply Nat.lt_le_incl, (find_last_lt _ _ _ E) | apply le_n].
Qed.

Lemma gen_name_spec : forall kids fuel c,
  ~ In (fst (gen_name kids c fuel)) kids \/ (forall j, In j (seq c fuel) -> In (NI j) kids).
Proof.
  intros kids fuel. induction fuel as [|f IH]; intro c; simpl.
  - right. intros j [].
  - destruct (mem (NI c) kids) eqn:E.
    + destruct (IH (S c)) as [H|H]; [left; exact H|].
      right. intros j [<-|Hj]; [apply mem_In, E | apply H, Hj].
    + left. simpl. apply mem_false. exact E.
Qed.

(* with more fuel than children the search cannot run out: the candidates are distinct *)
Lemma gen_name_fresh : forall kids c, ~ In (fst (gen_name kids c (S (length kids)))) kids.
Proof.
  intros kids c. destruct (gen_name_spec kids (S (length kids)) c) as [H|H]; [exact H|].
  exfalso.
  assert (Hincl : incl (map NI (seq c (S (length kids)))) kids).
  { intros x Hx. apply in_map_iff in Hx. destruct Hx as [j [<- Hj]]. apply H, Hj. }
  assert (Hnd : NoDup (map NI (seq c (S (length kids))))).
  { apply FinFun.Injective_map_NoDup; [|apply seq_NoDup]. intros x y E. injection E as ->. reflexivity. }
  pose proof (NoDup_incl_length Hnd Hincl) as Hl.
  rewrite map_length, seq_length in Hl. exact (Nat.nle_succ_diag_l _ Hl).
Qed.

Lemma replay_app : forall a b l, replay (a ++ b) l = replay b (replay a l).
Proof. intros a b l. unfold replay. apply fold_left_app. Qed.

Lemma replay_nil : forall l, replay [] l = l.
Proof. reflexivity. Qed.

Lemma ops_fit_app : forall a b l, ops_fit (a ++ b) l = ops_fit a l && ops_fit b (replay a l).
Proof.
  induction a as [|o a IH]; intros b l; simpl; [reflexivity|].
  rewrite IH. rewrite andb_assoc. reflexivity.
Qed.

(* a strict client that holds l can apply ops, and then holds l' *)
Definition logs (ops : list iop) (l l' : list name) : Prop := ops_fit ops l = true /\ replay ops l = l'.

Lemma logs_nil : forall l, logs [] l l.
Proof. split; reflexivity. Qed.

Lemma logs_app : forall a b l l1 l2, logs a l l1 -> logs b l1 l2 -> logs (a ++ b) l l2.
Proof.
  intros a b l l1 l2 [Fa Ra] [Fb Rb]. split.
  - rewrite ops_fit_app, Fa, Ra. exact Fb.
  - rewrite replay_app, Ra. exact Rb.
Qed.

Lemma logs_ins : forall l i k, i <= length l -> logs [OpIns i k] l (insert_at l i k).
Proof. intros l i k H. split; [|reflexivity]. simpl. rewrite andb_true_r. apply Nat.leb_le, H. Qed.

Lemma logs_rem : forall l i k, nth_error l i = Some k -> logs [OpRem i k] l (remove_at l i).
Proof. intros l i k H. split; [|reflexivity]. simpl. rewrite H, name_eqb_refl. reflexivity. Qed.

Lemma ins_from_logs : forall l pre, logs (ins_from (length pre) l) pre (pre ++ l).
Proof.
  induction l as [|k t IH]; intro pre; simpl.
  - rewrite app_nil_r. apply logs_nil.
  - apply (logs_app [OpIns (length pre) k] (ins_from (S (length pre)) t) pre (pre ++ [k])).
    + rewrite <- insert_at_end. apply logs_ins, le_n.
    + rewrite <- (last_length pre k). replace (pre ++ k :: t) with ((pre ++ [k]) ++ t) by (rewrite <- app_assoc; reflexivity).
      apply IH.
Qed.

(* what a client holds after replaying a snapshot: the index, whatever it held before -- unless the
   index is empty, for which the server sends nothing at all *)
Lemma snapshot_logs : forall n l, l = [] \/ index_of n <> [] -> logs (snapshot n) l (index_of n).
Proof.
  intros n l H. unfold snapshot. destruct (index_of n) as [|k t].
  - destruct H as [->|H]; [apply logs_nil | contradiction H; reflexivity].
  - exact (ins_from_logs (k :: t) []).   (* OpClear first: whatever l was, the inserts start from nothing *)
Qed.

Lemma snapshot_logs_same : forall n, logs (snapshot n) (index_of n) (index_of n).
Proof.
  intro n. apply snapshot_logs. destruct (index_of n); [left; reflexivity | right; discriminate].
Qed.

(* the index lists only children, each at most once *)
Definition wfn (kids : list name) (n : inode) : Prop := NoDup (index_of n) /\ incl (index_of n) kids.

Lemma wfn_new : forall kids, wfn kids new_node.
Proof. intro kids. split; [constructor | intros x H; inversion H]. Qed.

Lemma wfn_incl : forall kids kids' n, incl kids kids' -> wfn kids n -> wfn kids' n.
Proof. intros kids kids' n Hi [H1 H2]. split; [exact H1 | intros x Hx; apply Hi, H2, Hx]. Qed.

Lemma wfn_insert : forall kids l i k c, NoDup l -> incl l kids -> In k kids -> ~ In k l ->
  wfn kids (mkNode (Some (insert_at l i k)) c).
Proof.
  intros kids l i k c Hn Hi Hk Hnk. split; simpl.
  - apply insert_at_NoDup; assumption.
  - intros x Hx. apply insert_at_In in Hx. destruct Hx as [->|Hx]; [exact Hk | apply Hi, Hx].
Qed.

Lemma idx_Some : forall n l, idx n = Some l -> index_of n = l.
Proof. intros n l H. unfold index_of. rewrite H. reflexivity. Qed.

Lemma idx_None : forall n, idx n = None -> index_of n = [].
Proof. intros n H. unfold index_of. rewrite H. reflexivity. Qed.

Lemma remove_entry_spec : forall k l l' ops, NoDup l -> remove_entry k l = (l', ops) ->
  logs ops l l' /\ NoDup l' /\ forall x, In x l' <-> In x l /\ x <> k.
Proof.
  intros k l l' ops Hn H. unfold remove_entry in H. destruct (find_last k l) as [i|] eqn:E; injection H as <- <-.
  - apply find_last_some in E. split; [apply logs_rem, E | apply remove_at_spec; assumption].
  - apply find_last_none in E. split; [apply logs_nil|]. split; [exact Hn|].
    intro x. split; [intro H; split; [exact H | intros ->; exact (E H)] | intros [H _]; exact H].
Qed.

Lemma remove_index_entry_spec : forall kids n k n' ops, wfn kids n -> remove_index_entry n k = (n', ops) ->
  wfn kids n' /\ logs ops (index_of n) (index_of n') /\ forall x, In x (index_of n') <-> In x (index_of n) /\ x <> k.
Proof.
  intros kids n k n' ops [Hn Hi] H. unfold remove_index_entry in H. unfold wfn, index_of in *.
  destruct (idx n) as [l|] eqn:El.
  - destruct (remove_entry k l) as [l' o] eqn:Er. injection H as <- <-. simpl.
    destruct (remove_entry_spec _ _ _ _ Hn Er) as (L & N & I).
    split; [split; [exact N | intros x Hx; apply Hi, I, Hx] | split; assumption].
  - injection H as <- <-. rewrite El. split; [split; assumption|]. split; [apply logs_nil | intro x; split; [intros [] | intros [[] _]]].
Qed.

Lemma insert_ordered_child_spec : forall kids n b optname n' nm ops,
  wfn kids n -> (forall x, optname = Some x -> ~ In x kids) ->
  insert_ordered_child kids n b optname = (n', nm, ops) ->
  ~ In nm kids /\ wfn (kids ++ [nm]) n' /\ logs ops (index_of n) (index_of n').
Proof.
  intros kids n b optname n' nm ops [Hn Hi] Hopt H. unfold insert_ordered_child in H.
  destruct (match optname with Some x => (x, ctr n) | None => gen_name kids (ctr n) (S (length kids)) end)
    as [nm0 c0] eqn:Eg.
  assert (Hfresh : ~ In nm0 kids).
  { destruct optname as [x|]; [injection Eg as <- _; apply Hopt; reflexivity|].
    pose proof (gen_name_fresh kids (ctr n)) as F. rewrite Eg in F. exact F. }
  unfold index_of in *.
  (* an absent index and an empty one behave alike *)
  destruct (idx n) as [l|]; destruct (is_remove b); injection H as <- <- <-; (split; [exact Hfresh|]); simpl.
  1,3: split; [split; [exact Hn | apply incl_appl, Hi] | apply logs_nil].
  all: split; [apply wfn_insert; [exact Hn | apply incl_appl, Hi | apply in_or_app; right; left; reflexivity
                                 | intro Hc; apply Hfresh, Hi, Hc]
              | apply logs_ins, target_pos_le].
Qed.

Lemma reorder_go_spec : forall kids cn c b l n2 ops2,
  NoDup l -> incl l kids -> In c kids -> reorder_go kids cn c b l = (n2, ops2) ->
  wfn kids n2 /\ logs ops2 l (index_of n2).
Proof.
  intros kids cn c b l n2 ops2 Hl Hli Hc E. unfold reorder_go in E.
  destruct (remove_entry c l) as [l1 ops1] eqn:Er.
  destruct (remove_entry_spec _ _ _ _ Hl Er) as (L & N & I).
  assert (Hli1 : incl l1 kids) by (intros x Hx; apply Hli, I, Hx).
  assert (Hins : forall tgt, tgt <= length l1 ->
            wfn kids (mkNode (Some (insert_at l1 tgt c)) cn) /\ logs (ops1 ++ [OpIns tgt c]) l (insert_at l1 tgt c)).
  { intros tgt Ht. split; [|eapply logs_app; [exact L | apply logs_ins, Ht]].
    apply wfn_insert; try assumption. intro Hx. apply I in Hx. destruct Hx as [_ Hx]. exact (Hx eq_refl). }
  destruct b as [| |x]; injection E as <- <-.
  - apply Hins, le_n.
  - split; [split; assumption | exact L].
  - apply Hins. destruct (mem x kids); [apply (target_pos_le (BName x)) | apply le_n].
Qed.

Lemma reorder_child_spec : forall kids n c b n' ops,
  wfn kids n -> In c kids -> reorder_child kids n c b = (n', ops) ->
  wfn kids n' /\ logs ops (index_of n) (index_of n').
Proof.
  intros kids n c b n' ops Hw Hc H. unfold reorder_child in H.
  assert (Hsame : (n, @nil iop) = (n', ops) -> wfn kids n' /\ logs ops (index_of n) (index_of n')).
  { intro E. injection E as <- <-. split; [exact Hw | apply logs_nil]. }
  destruct Hw as [Hn Hi].
  destruct (idx n) as [l|] eqn:El;
    [rewrite (idx_Some _ _ El) in * | rewrite (idx_None _ El) in *; destruct (is_remove b); [apply Hsame, H|]];
    (destruct (match b with BName x => name_eqb x c | _ => false end);
     [apply Hsame, H | eapply reorder_go_spec; eassumption]).
Qed.

Lemma insert_index_entry_at_spec : forall kids n pos k n' ops,
  wfn kids n -> mem k kids = true -> ~ In k (index_of n) -> pos <= length (index_of n) ->
  insert_index_entry_at kids n pos k = (n', ops) ->
  wfn kids n' /\ logs ops (index_of n) (index_of n') /\ index_of n' = insert_at (index_of n) pos k.
Proof.
  intros kids n pos k n' ops [Hn Hi] E Hk Hp H. unfold insert_index_entry_at in H. rewrite E in H.
  injection H as <- <-. apply mem_In in E.
  split; [apply wfn_insert; assumption | split; [apply logs_ins, Hp | reflexivity]].
Qed.

Lemma remove_index_entry_at_spec : forall kids n pos n' ops,
  wfn kids n -> remove_index_entry_at n pos = (n', ops) ->
  wfn kids n' /\ logs ops (index_of n) (index_of n') /\ incl (index_of n') (index_of n).
Proof.
  intros kids n pos n' ops Hw H. unfold remove_index_entry_at in H.
  assert (Hsame : (n, @nil iop) = (n', ops) ->
            wfn kids n' /\ logs ops (index_of n) (index_of n') /\ incl (index_of n') (index_of n)).
  { intro E. injection E as <- <-. split; [exact Hw | split; [apply logs_nil | apply incl_refl]]. }
  destruct Hw as [Hn Hi].
  destruct (idx n) as [l|] eqn:El; [rewrite (idx_Some _ _ El) in * | apply Hsame, H].
  destruct (nth_error l pos) as [k|] eqn:E; [|apply Hsame, H]. injection H as <- <-. simpl.
  assert (Hsub : incl (remove_at l pos) l) by (intro x; apply remove_at_In).
  split; [split; [apply remove_at_NoDup, Hn | intros x Hx; apply Hi, Hsub, Hx] | split; [apply logs_rem, E | exact Hsub]].
Qed.

(* the pinned InsertIndexEntryAt happily inserts a name a second time (its documented precondition);
   CloneDataNodeSubtree onto a destination that already has the entry does exactly that *)
Lemma insert_index_entry_at_dup_refuted :
  exists kids n pos k, wfn kids n /\ ~ NoDup (index_of (fst (insert_index_entry_at kids n pos k))).
Proof.
  exists [NI 0], (mkNode (Some [NI 0]) 0), 0, (NI 0). split.
  - split; simpl; [repeat constructor; intros [] | intros x Hx; exact Hx].
  - simpl. intro H. inversion H as [|? ? Hn _]. apply Hn. left. reflexivity.
Qed.

Lemma strip_prefix_spec : forall p q r, strip_prefix p q = Some r <-> q = p ++ r.
Proof.
  induction p as [|a p IH]; intros q r; simpl.
  - split; intro H; [inversion H | subst]; reflexivity.
  - destruct q as [|b q]; [split; intro H; discriminate|].
    destruct (name_eqP a b) as [->|Hne].
    + rewrite IH. split; intro H; [subst | inversion H]; reflexivity.
    + split; intro H; [discriminate | inversion H; congruence].
Qed.

Lemma is_prefix_spec : forall p q, is_prefix p q = true <-> exists r, q = p ++ r.
Proof.
  intros p q. unfold is_prefix. destruct (strip_prefix p q) as [r|] eqn:E.
  - split; [intros _; exists r; apply strip_prefix_spec; exact E | reflexivity].
  - split; [discriminate|]. intros [r Hr]. apply strip_prefix_spec in Hr. congruence.
Qed.

Lemma is_prefix_refl : forall p, is_prefix p p = true.
Proof. intro p. apply is_prefix_spec. exists []. rewrite app_nil_r. reflexivity. Qed.

Lemma is_prefix_app : forall p r, is_prefix p (p ++ r) = true.
Proof. intros p r. apply is_prefix_spec. exists r. reflexivity. Qed.

Lemma is_prefix_length : forall p q, is_prefix p q = true -> length p <= length q.
Proof. intros p q H. apply is_prefix_spec in H. destruct H as [r ->]. rewrite app_length. apply Nat.le_add_r. Qed.

(* v is a prefix of q ++ [k] but not of q: then v is q ++ [k] itself *)
Lemma is_prefix_snoc : forall v q k, is_prefix v (q ++ [k]) = true -> is_prefix v q = false -> v = q ++ [k].
Proof.
  intros v q k H1 H2. apply is_prefix_spec in H1. destruct H1 as [r Hr].
  destruct r as [|x r] using rev_ind.
  - rewrite app_nil_r in Hr. symmetry. exact Hr.
  - exfalso. rewrite app_assoc in Hr. apply app_inj_tail in Hr. destruct Hr as [Hq _].
    assert (is_prefix v q = true) by (apply is_prefix_spec; exists r; exact Hq). congruence.
Qed.

Lemma lookup_set_node : forall t p n q,
  lookup (set_node t p n) q = if path_eqb p q then (match lookup t p with Some _ => Some n | None => None end) else lookup t q.
Proof.
  induction t as [|[r m] t IH]; intros p n q; simpl.
  - destruct (path_eqb p q); reflexivity.
  - destruct (path_eqP r p) as [->|E1]; simpl.
    + destruct (path_eqb p q); reflexivity.
    + destruct (path_eqP r q) as [->|E2]; [rewrite (path_eqb_neq p q) by congruence; reflexivity | apply IH].
Qed.

Lemma keys_set_node : forall t p n, map fst (set_node t p n) = map fst t.
Proof.
  induction t as [|[r m] t IH]; intros p n; simpl; [reflexivity|].
  destruct (path_eqb r p); simpl; [reflexivity | rewrite IH; reflexivity].
Qed.

Lemma kids_of_keys : forall t t' p, map fst t = map fst t' -> kids_of t p = kids_of t' p.
Proof.
  induction t as [|[r m] t IH]; intros [|[r' m'] t'] p H; simpl in *; try discriminate; [reflexivity|].
  inversion H; subst. rewrite (IH t' p) by assumption. reflexivity.
Qed.

Lemma kids_of_set_node : forall t p n q, kids_of (set_node t p n) q = kids_of t q.
Proof. intros. apply kids_of_keys. apply keys_set_node. Qed.

Lemma has_node_In : forall t p, has_node t p = true <-> In p (map fst t).
Proof.
  intros t p. unfold has_node. induction t as [|[q n] t IH]; simpl; [split; [discriminate | contradiction]|].
  destruct (path_eqP q p) as [->|Hne]; [split; [left|]; reflexivity|].
  rewrite IH. split; [right; assumption | intros [H|H]; [contradiction | exact H]].
Qed.

Lemma has_node_keys : forall t t' p, map fst t = map fst t' -> has_node t p = has_node t' p.
Proof.
  intros t t' p H. apply eq_true_iff_eq. rewrite !has_node_In, H. reflexivity.
Qed.

Lemma has_node_set_node : forall t p n q, has_node (set_node t p n) q = has_node t q.
Proof. intros. apply has_node_keys. apply keys_set_node. Qed.

Lemma has_node_lookup : forall t p, has_node t p = true -> exists n, lookup t p = Some n.
Proof. intros t p H. unfold has_node in H. destruct (lookup t p) as [n|]; [exists n; reflexivity | discriminate]. Qed.

Lemma lookup_app : forall t1 t2 q, lookup (t1 ++ t2) q = match lookup t1 q with Some n => Some n | None => lookup t2 q end.
Proof.
  induction t1 as [|[r m] t1 IH]; intros t2 q; simpl; [reflexivity|].
  destruct (path_eqb r q); [reflexivity | apply IH].
Qed.

Lemma lookup_add_node : forall t p q,
  lookup (add_node t p) q = match lookup t q with Some n => Some n | None => if path_eqb p q then Some new_node else None end.
Proof.
  intros t p q. unfold add_node, has_node. destruct (lookup t p) as [n|] eqn:E.
  - destruct (lookup t q) eqn:E2; [reflexivity|]. destruct (path_eqP p q) as [->|]; [congruence | reflexivity].
  - rewrite lookup_app. simpl. destruct (lookup t q); reflexivity.
Qed.

Lemma kids_of_app : forall t1 t2 p, kids_of (t1 ++ t2) p = kids_of t1 p ++ kids_of t2 p.
Proof.
  induction t1 as [|[r m] t1 IH]; intros t2 p; simpl; [reflexivity|].
  destruct (strip_prefix p r) as [[|k [|k2 r2]]|]; simpl; rewrite IH; reflexivity.
Qed.

Lemma kids_of_In : forall t p k, In k (kids_of t p) <-> has_node t (p ++ [k]) = true.
Proof.
  induction t as [|[r m] t IH]; intros p k; simpl.
  - unfold has_node. simpl. split; [contradiction | discriminate].
  - unfold has_node in *. simpl.
    destruct (path_eqP r (p ++ [k])) as [->|E].
    + rewrite (proj2 (strip_prefix_spec p (p ++ [k]) [k]) eq_refl). split; [reflexivity | left; reflexivity].
    + destruct (strip_prefix p r) as [[|k1 [|k2 r2]]|] eqn:S; try apply IH.
      simpl. rewrite IH. apply strip_prefix_spec in S. subst r.
      split; [|intro H; right; exact H]. intros [->|H]; [contradiction E; reflexivity | exact H].
Qed.

Lemma kids_of_add_node : forall t p q, incl (kids_of t q) (kids_of (add_node t p) q).
Proof.
  intros t p q. unfold add_node. destruct (has_node t p); [apply incl_refl|].
  rewrite kids_of_app. apply incl_appl, incl_refl.
Qed.

Lemma has_node_add_node : forall t p q, has_node (add_node t p) q = has_node t q || path_eqb p q.
Proof.
  intros t p q. unfold has_node. rewrite lookup_add_node. destruct (lookup t q); [reflexivity|].
  destruct (path_eqb p q); reflexivity.
Qed.

Lemma keys_add_node_NoDup : forall t p, NoDup (map fst t) -> NoDup (map fst (add_node t p)).
Proof.
  intros t p H. unfold add_node. destruct (has_node t p) eqn:E; [exact H|].
  rewrite map_app. simpl. apply (Permutation_NoDup (Permutation_cons_append _ _)).
  constructor; [|exact H]. rewrite <- has_node_In, E. discriminate.
Qed.

Lemma NoDup_keys_filter : forall (f : path * inode -> bool) t, NoDup (map fst t) -> NoDup (map fst (filter f t)).
Proof.
  intros f t H. induction t as [|e t IH]; [constructor|]. simpl in H. apply NoDup_cons_iff in H. destruct H as [Hh Ht]. simpl.
  destruct (f e); [|apply IH; exact Ht]. simpl. constructor; [|apply IH; exact Ht].
  intro Hin. apply Hh. apply in_map_iff in Hin. destruct Hin as [e' [E Hin]]. apply filter_In in Hin.
  apply in_map_iff. exists e'. split; [exact E | apply Hin].
Qed.

Lemma lookup_In : forall t p n, lookup t p = Some n -> In (p, n) t.
Proof.
  induction t as [|[r m] t IH]; intros p n H; simpl in H; [discriminate|].
  destruct (path_eqP r p) as [->|]; [injection H as ->; left; reflexivity | right; apply IH, H].
Qed.

Lemma In_lookup : forall t p n, NoDup (map fst t) -> In (p, n) t -> lookup t p = Some n.
Proof.
  induction t as [|[r m] t IH]; intros p n Hn H; [inversion H|].
  simpl in Hn. apply NoDup_cons_iff in Hn. destruct Hn as [Hr Hn']. simpl. destruct H as [H|H].
  - injection H as -> ->. rewrite path_eqb_refl. reflexivity.
  - destruct (path_eqP r p) as [->|]; [|apply IH; assumption].
    contradiction Hr. exact (in_map fst _ _ H).
Qed.

Lemma lookup_filter_key : forall (f : path -> bool) t q,
  lookup (filter (fun e => f (fst e)) t) q = if f q then lookup t q else None.
Proof.
  intros f t q. induction t as [|[r m] t IH]; simpl.
  - destruct (f q); reflexivity.
  - destruct (f r) eqn:Ef; simpl; (destruct (path_eqP r q) as [->|]; [rewrite Ef in *|]; try exact IH). reflexivity.
Qed.

Lemma lookup_delete_subtree : forall t v q,
  lookup (delete_subtree t v) q = if is_prefix v q then None else lookup t q.
Proof.
  intros t v q. unfold delete_subtree.
  rewrite (lookup_filter_key (fun p => negb (is_prefix v p))). destruct (is_prefix v q); reflexivity.
Qed.

Lemma has_node_delete : forall t v q, has_node (delete_subtree t v) q = has_node t q && negb (is_prefix v q).
Proof.
  intros t v q. unfold has_node. rewrite lookup_delete_subtree.
  destruct (is_prefix v q); simpl; [rewrite andb_false_r; reflexivity | rewrite andb_true_r; reflexivity].
Qed.

Lemma subtree_paths_In : forall t v q, In q (subtree_paths t v) <-> has_node t q = true /\ is_prefix v q = true.
Proof.
  intros t v q. unfold subtree_paths. rewrite in_map_iff. split.
  - intros [[r m] [E H]]. simpl in E. subst. apply filter_In in H. destruct H as [Hin Hp].
    split; [apply has_node_In, (in_map fst _ _ Hin) | exact Hp].
  - intros [Hh Hp]. destruct (has_node_lookup _ _ Hh) as [n E].
    exists (q, n). split; [reflexivity|]. apply filter_In. split; [apply lookup_In; exact E | exact Hp].
Qed.

Lemma index_at_lookup : forall t p n, lookup t p = Some n -> index_at t p = index_of n.
Proof. intros t p n H. unfold index_at. rewrite H. reflexivity. Qed.

Lemma index_at_set_node : forall t p n n' q, lookup t p = Some n ->
  index_at (set_node t p n') q = if path_eqb p q then index_of n' else index_at t q.
Proof.
  intros t p n n' q H. unfold index_at. rewrite lookup_set_node, H. destruct (path_eqb p q); reflexivity.
Qed.

Lemma index_at_add_node : forall t p q, index_at (add_node t p) q = index_at t q.
Proof.
  intros t p q. unfold index_at. rewrite lookup_add_node. destruct (lookup t q); [reflexivity|].
  destruct (path_eqb p q); reflexivity.
Qed.

Lemma index_at_delete_subtree : forall t v q,
  index_at (delete_subtree t v) q = if is_prefix v q then [] else index_at t q.
Proof. intros t v q. unfold index_at. rewrite lookup_delete_subtree. destruct (is_prefix v q); reflexivity. Qed.

(* every index lists only existing children of its node, each at most once *)
Definition twf (t : tree) : Prop :=
  NoDup (map fst t) /\ forall p n, lookup t p = Some n -> wfn (kids_of t p) n.

Lemma twf_index : forall t p, twf t ->
  NoDup (index_at t p) /\ forall k, In k (index_at t p) -> has_node t (p ++ [k]) = true.
Proof.
  intros t p [_ H]. unfold index_at. destruct (lookup t p) as [n|] eqn:E; [|split; [constructor | intros k []]].
  split; [apply (H p n E) | intros k Hin; apply kids_of_In, (H p n E), Hin].
Qed.

Lemma twf_set_node : forall t p n', twf t -> wfn (kids_of t p) n' -> twf (set_node t p n').
Proof.
  intros t p n' [Hk H] Hw. split; [rewrite keys_set_node; exact Hk|].
  intros q m Hq. rewrite lookup_set_node in Hq. rewrite kids_of_set_node.
  destruct (path_eqP p q) as [->|]; [|apply H, Hq].
  destruct (lookup t q); [|discriminate]. injection Hq as <-. exact Hw.
Qed.

Lemma twf_add_node : forall t p, twf t -> twf (add_node t p).
Proof.
  intros t p [Hk H]. split; [apply keys_add_node_NoDup; exact Hk|].
  intros q m Hq. rewrite lookup_add_node in Hq. destruct (lookup t q) as [m0|] eqn:E.
  - injection Hq as <-. eapply wfn_incl; [apply kids_of_add_node | apply H; exact E].
  - destruct (path_eqb p q); [|discriminate]. injection Hq as <-. apply wfn_new.
Qed.

Lemma twf_insert_child : forall t p n n' nm,
  twf t -> lookup t p = Some n -> wfn (kids_of t p ++ [nm]) n' ->
  twf (add_node (set_node t p n') (p ++ [nm])).
Proof.
  intros t p n n' nm [Hk Hw] Hl Hwn. split.
  - apply keys_add_node_NoDup. rewrite keys_set_node. exact Hk.
  - intros q m Hq. rewrite lookup_add_node, lookup_set_node, Hl in Hq.
    assert (Hkids : forall q0, incl (kids_of t q0) (kids_of (add_node (set_node t p n') (p ++ [nm])) q0)).
    { intro q0. eapply incl_tran; [|apply kids_of_add_node]. rewrite kids_of_set_node. apply incl_refl. }
    destruct (path_eqP p q) as [->|].
    + injection Hq as <-.
      eapply wfn_incl; [|exact Hwn]. intros x Hx. apply in_app_or in Hx. destruct Hx as [Hx|[<-|[]]].
      * apply Hkids. exact Hx.
      * apply kids_of_In. rewrite has_node_add_node, path_eqb_refl. apply orb_true_r.
    + destruct (lookup t q) as [m0|] eqn:El.
      * injection Hq as <-. eapply wfn_incl; [apply Hkids | apply Hw; exact El].
      * destruct (path_eqb (p ++ [nm]) q); [|discriminate]. injection Hq as <-. apply wfn_new.
Qed.

Lemma twf_delete_subtree : forall t v, twf t -> ~ In (last_name v) (index_at t (parent_of v)) -> twf (delete_subtree t v).
Proof.
  intros t v W Hgone. split; [apply NoDup_keys_filter, W|].
  intros q m Hq. rewrite lookup_delete_subtree in Hq. destruct (is_prefix v q) eqn:Ep; [discriminate|].
  destruct (proj2 W q m Hq) as [Hnd Hinc]. split; [exact Hnd|].
  intros x Hx. apply kids_of_In. rewrite has_node_delete.
  rewrite (proj1 (kids_of_In t q x) (Hinc x Hx)). simpl.
  destruct (is_prefix v (q ++ [x])) eqn:Ep2; [|reflexivity]. exfalso.
  pose proof (is_prefix_snoc _ _ _ Ep2 Ep) as Ev. subst v.
  unfold parent_of, last_name in Hgone. rewrite removelast_last, last_last in Hgone.
  apply Hgone. rewrite (index_at_lookup _ _ _ Hq). exact Hx.
Qed.
