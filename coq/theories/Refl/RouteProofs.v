(* Refl/RouteProofs.v -- proofs about the routing of one client-to-client Message (the model of Refl/Route.v).

   deliver_once_lemma : with the three repairs, a Message handed to MessageReceivedFromGateway is appended exactly once to
                        the outgoing queue of every session the statement of C05 selects, and no other queue changes.
   Both PassMessageCallback and FindSessionsCallback return "skip to the next session", so what they see of a traversal is
   the owners of its nodes ([owners]); vt_owners relates those to the brute-force test of C05's traversal theorem.
   What holds for whole histories is in Refl/RouteRun.v. *)
From Coq Require Import List ZArith Bool Lia.
From Muscle Require Import Refl.Base Refl.Tree Refl.Matcher Refl.Traverse Refl.Session Refl.Server Refl.Route Refl.TravBase
  Refl.TraverseProofs Refl.TraverseTheorems Refl.TraverseExit.
Import ListNotations.

Lemma sid_mem_in : forall (s : sid) (l : list sid), sid_mem s l = true <-> In s l.
Proof.
  intros s l. induction l as [|x l IH]; cbn; [split; [discriminate | intros []]|].
  rewrite orb_true_iff, IH, N.eqb_eq. tauto.
Qed.

Lemma pass_depth_2 : pass_depth = 2%Z.
Proof. reflexivity. Qed.

Lemma owner_key_firstn : forall p : path, owner_key (firstn 3 p) = owner_key p.
Proof. intros [|a [|b [|c p]]]; reflexivity. Qed.

Fixpoint fresh (l seen : list sid) : list sid :=
  match l with
  | [] => []
  | x :: l' => if sid_mem x seen then fresh l' seen else x :: fresh l' (x :: seen)
  end.

Lemma fresh_In : forall l seen r, In r (fresh l seen) <-> In r l /\ ~ In r seen.
Proof.
  induction l as [|x l IH]; intros seen r; cbn [fresh In]; [tauto|].
  destruct (sid_mem x seen) eqn:E.
  - apply sid_mem_in in E. rewrite IH. split; [tauto|]. intros [[H|H] N]; [subst; contradiction | tauto].
  - assert (~ In x seen) by (rewrite <- sid_mem_in; congruence). cbn [In]. rewrite IH. cbn [In].
    destruct (N.eq_dec x r); [subst|]; tauto.
Qed.

Lemma fresh_NoDup : forall l seen, NoDup (fresh l seen).
Proof.
  induction l as [|x l IH]; intros seen; cbn [fresh]; [constructor|].
  destruct (sid_mem x seen); [apply IH|]. constructor; [|apply IH]. rewrite fresh_In. cbn [In]. tauto.
Qed.

Lemma fresh_ext : forall l s1 s2, (forall y, sid_mem y s1 = sid_mem y s2) -> fresh l s1 = fresh l s2.
Proof.
  induction l as [|x l IH]; intros s1 s2 H; cbn [fresh]; [reflexivity|]. rewrite (H x).
  destruct (sid_mem x s2); [now apply IH|]. f_equal. apply IH. intros y. cbn [sid_mem]. now rewrite H.
Qed.

Lemma sid_mem_fresh : forall l r, sid_mem r (fresh l []) = sid_mem r l.
Proof. intros l r. apply eq_true_iff_eq. rewrite !sid_mem_in, fresh_In. cbn [In]. tauto. Qed.

Lemma sid_mem_filter : forall (p : sid -> bool) (l : list sid) (r : sid), sid_mem r (filter p l) = p r && sid_mem r l.
Proof. intros p l r. apply eq_true_iff_eq. rewrite andb_true_iff, !sid_mem_in, filter_In. tauto. Qed.

Section Owners.
Context {M : MatchOps}.

(* node n belongs to session r *)
Definition owned_by (sessions : list session) (r : sid) (n : node) : bool :=
  match owner_of sessions (n_path n) with Some ss => N.eqb (s_id ss) r | None => false end.

(* the sessions owning the nodes of a visit list, one entry per node: what PassMessageCallback and FindSessionsCallback
   see of a traversal *)
Definition owners (sessions : list session) (L : list node) : list sid :=
  flat_map (fun n => match owner_of sessions (n_path n) with Some ss => [s_id ss] | None => [] end) L.

Lemma owners_In : forall sessions L r, In r (owners sessions L) <-> exists n, In n L /\ owned_by sessions r n = true.
Proof.
  intros sessions L r. unfold owners, owned_by. rewrite in_flat_map.
  split; intros [n [Hn H]]; exists n; (split; [assumption|]); destruct (owner_of sessions (n_path n)) as [ss|].
  - destruct H as [H|[]]. now apply N.eqb_eq.
  - destruct H.
  - left. now apply N.eqb_eq.
  - discriminate.
Qed.

End Owners.

Section RouteProofs.
Context {M : MatchOps}.
Variable okname : name -> Prop.
Hypothesis ckeys_sound : forall (c : clause) (ks : list name) (k : name), okname k -> ckeys c = Some ks -> cmatch c k = true -> In k ks.
Hypothesis ckeys_complete : forall (c : clause) (ks : list name) (k : name), ckeys c = Some ks -> In k ks -> cmatch c k = true.

Local Notation FX := r_all_fixed.

Section Fold.
Variable sessions : list session.
Variable sender : sid.
Variable self_ok : bool.
Variable d : dlv.

Definition eligible (r : sid) : bool := negb (N.eqb r sender) || self_ok.

Definition pass_h (acc : list rinfo * list sid) (n : node) : list rinfo * list sid :=
  fst (pass_cb FX sessions sender self_ok d acc n).

Lemma pass_cb_K : forall acc n, pass_cb FX sessions sender self_ok d acc n = cbK _ pass_h acc n.
Proof.
  intros acc n. unfold cbK, pass_h, pass_cb. rewrite pass_depth_2.
  destruct (owner_of sessions (n_path n)) as [ss|]; [|reflexivity].
  destruct ((negb (N.eqb (s_id ss) sender) || self_ok) && negb (rf_once FX && sid_mem (s_id ss) (snd acc))); reflexivity.
Qed.

Lemma fold_pass_h : forall L infos sent,
  fst (fold_left pass_h L (infos, sent))
  = fold_left (fun inf r => deliver_to inf sender r d) (fresh (filter eligible (owners sessions L)) sent) infos.
Proof.
  induction L as [|n L IH]; intros infos sent; [reflexivity|].
  cbn [fold_left owners flat_map]. unfold pass_h at 2, pass_cb. cbn [rf_once FX fst snd andb].
  destruct (owner_of sessions (n_path n)) as [ss|]; [|apply IH]. cbn [app filter]. fold (eligible (s_id ss)).
  destruct (eligible (s_id ss)); [|apply IH]. cbn [fresh andb].
  destruct (sid_mem (s_id ss) sent); apply IH.
Qed.

End Fold.

Lemma put_inbox_id : forall s d ri, ri_id (put_inbox s d ri) = ri_id ri.
Proof. intros s d ri. unfold put_inbox. destruct (N.eqb s (ri_id ri) || ri_nb2gw ri); reflexivity. Qed.

(* delivering to a duplicate-free list of sessions, one after the other *)
Lemma deliver_fold : forall (sender : sid) (d : dlv) (rs : list sid) (infos : list rinfo),
  NoDup rs ->
  fold_left (fun inf r => deliver_to inf sender r d) rs infos
  = map (fun ri => if sid_mem (ri_id ri) rs then put_inbox sender d ri else ri) infos.
Proof.
  intros sender d rs. induction rs as [|r rs IH]; intros infos ND.
  - cbn. symmetry. apply map_id.
  - inversion ND as [|? ? Hnot ND']; subst. cbn [fold_left]. rewrite IH by assumption.
    unfold deliver_to. rewrite map_map. apply map_ext. intros ri. cbn [sid_mem].
    destruct (N.eqb (ri_id ri) r) eqn:E.
    + apply N.eqb_eq in E. rewrite put_inbox_id. rewrite E, N.eqb_refl. cbn [orb].
      destruct (sid_mem r rs) eqn:X; [apply sid_mem_in in X; contradiction | reflexivity].
    + rewrite N.eqb_sym in E. rewrite E. reflexivity.
Qed.

(* session r is selected by the patterns of mt (filters included) and may be sent to *)
Definition gets (st : rstate) (s : sid) (self_ok : bool) (mt : matcher) (r : sid) : bool :=
  eligible s self_ok r &&
  existsb (fun n => owned_by (sv_sessions (rs_srv st)) r n && matches_path mt (n_path n) (Some (n_data n))) (sv_tree (rs_srv st)).

(* The callbacks return "skip to the next session", so the traversal is cut below depth 3 (the visit list Vt).  The
   sessions owning a node of the cut visit list = the sessions owning a node the brute-force test accepts: a node that is
   cut off has the owner of the depth-3 node above it. *)
Lemma vt_owners : forall (sessions : list session) (t : tree) (mt : matcher) (r : sid),
  tree_wf t -> (forall n, In n t -> Forall okname (n_path n)) -> matcher_wf mt ->
  sid_mem r (owners sessions (Vt t mt true true (S (max_clauses mt)) []))
  = existsb (fun n => owned_by sessions r n && matches_path mt (n_path n) (Some (n_data n))) t.
Proof.
  intros sessions t mt r TWF NOK MWF.
  destruct (traversal_eq_bruteforce_lemma okname ckeys_sound ckeys_complete t mt [] true TWF MWF NOK) as [_ SEL].
  rewrite visits_V in SEL. cbn [length] in SEL. apply eq_true_iff_eq. rewrite sid_mem_in, owners_In, existsb_exists. split.
  - intros [n [Hn Ho]]. apply Vt_incl in Hn. apply SEL in Hn. destruct Hn as [Hnt [_ Hm]]. cbn in Hm.
    exists n. split; [assumption|]. now apply andb_true_iff.
  - intros [n [Hnt Hx]]. apply andb_true_iff in Hx. destruct Hx as [Hown Hm].
    assert (Hsel : In n (V t mt 0 true true (S (max_clauses mt)) [])).
    { apply SEL. split; [assumption|]. split; [|exact Hm].
      exists (n_path n). split; [|reflexivity]. destruct TWF as [_ [NE _]]. now apply NE. }
    destruct (Vt_covers t mt true true _ [] n (Nat.lt_0_succ 2) Hsel) as [n' [Hn' Hp]].
    exists n'. split; [assumption|]. unfold owned_by, owner_of in *. now rewrite <- owner_key_firstn, Hp, owner_key_firstn.
Qed.

Theorem pass_traversal_once : forall (st : rstate) (s : sid) (self_ok : bool) (d : dlv) (mt : matcher),
  tree_wf (sv_tree (rs_srv st)) -> (forall n, In n (sv_tree (rs_srv st)) -> Forall okname (n_path n)) -> matcher_wf mt ->
  pass_traversal FX st s self_ok d mt
  = map (fun ri => if gets st s self_ok mt (ri_id ri) then put_inbox s d ri else ri) (rs_info st).
Proof.
  intros st s self_ok d mt TWF NOK MWF. unfold pass_traversal, do_traversal. cbn [rf_guard FX length].
  rewrite (trav_ext _ _ _ _ _ _ _ _ (pass_cb_K (sv_sessions (rs_srv st)) s self_ok d)).
  rewrite trav_const_depth, fold_pass_h, deliver_fold by apply fresh_NoDup.
  apply map_ext. intros ri. unfold gets. now rewrite sid_mem_fresh, sid_mem_filter, vt_owners.
Qed.

Section FindSessions.
Variable sessions : list session.

Definition sess_h (acc : list sid) (n : node) : list sid := fst (sessions_cb sessions None acc n).

Lemma sessions_cb_K : forall acc n, sessions_cb sessions None acc n = cbK _ sess_h acc n.
Proof. intros acc n. unfold cbK, sess_h, sessions_cb. cbn [fst]. now rewrite pass_depth_2. Qed.

Lemma fold_sess_h : forall L acc, fold_left sess_h L acc = acc ++ fresh (owners sessions L) acc.
Proof.
  induction L as [|n L IH]; intros acc; [cbn; now rewrite app_nil_r|].
  cbn [fold_left owners flat_map]. unfold sess_h at 2, sessions_cb. cbn [fst].
  destruct (owner_of sessions (n_path n)) as [ss|]; [|apply IH]. cbn [app fresh].
  destruct (sid_mem (s_id ss) acc); [apply IH|].
  rewrite IH, <- app_assoc. cbn [app]. do 2 f_equal. apply fresh_ext. intros y.
  apply eq_true_iff_eq. rewrite !sid_mem_in, in_app_iff. cbn [In]. tauto.
Qed.

End FindSessions.

(* FindMatchingSessions(path, filter, results, includeSelf, MUSCLE_NO_LIMIT) with a non-empty path: every session owning
   a node the pattern (and its filter) accepts, each once; the caller itself only when asked for *)
Theorem find_sessions_lemma : forall (st : rstate) (s : sid) (sp : spath) (f : option qfilter) (include_self : bool),
  tree_wf (sv_tree (rs_srv st)) -> (forall n, In n (sv_tree (rs_srv st)) -> Forall okname (n_path n)) ->
  fix_path sp <> [] ->
  NoDup (find_sessions FX st s sp f include_self None) /\
  (forall r, In r (find_sessions FX st s sp f include_self None) <->
             (include_self = true \/ r <> s) /\
             existsb (fun n => owned_by (sv_sessions (rs_srv st)) r n &&
                               matches_path (m_put empty_matcher (fix_path sp) f) (n_path n) (Some (n_data n)))
                     (sv_tree (rs_srv st)) = true).
Proof.
  intros st s sp f include_self TWF NOK Hfp. unfold find_sessions.
  destruct (fix_path sp) as [|c fp] eqn:E; [now contradiction Hfp|]. clear Hfp.
  set (mt := m_put empty_matcher (c :: fp) f).
  assert (MWF : matcher_wf mt) by (apply m_put_wf; apply empty_matcher_wf).
  unfold do_traversal. cbn [rf_guard FX length].
  rewrite (trav_ext _ _ _ _ _ _ _ _ (sessions_cb_K (sv_sessions (rs_srv st)))), trav_const_depth.
  rewrite fold_sess_h. cbn [app].
  destruct include_self.
  - split; [apply fresh_NoDup|]. intros r.
    rewrite <- (sid_mem_in r (fresh _ _)), sid_mem_fresh, (vt_owners _ _ mt r TWF NOK MWF). tauto.
  - split; [apply NoDup_filter, fresh_NoDup|]. intros r.
    rewrite filter_In, <- (sid_mem_in r (fresh _ _)), sid_mem_fresh, (vt_owners _ _ mt r TWF NOK MWF), negb_true_iff, N.eqb_neq.
    split; [tauto|]. intros [[H3|H3] H4]; [discriminate | tauto].
Qed.

Lemma collect_cb_S : forall (k : nat) (acc : list node) (n : node),
  collect_cb (Some k) acc n = cbS (list node) (fun a x => x :: a) (fun a => Nat.eqb (length a) k) acc n.
Proof. reflexivity. Qed.

Lemma sfold_collect : forall (k : nat) (L acc : list node),
  length acc < k ->
  fst (sfold (list node) (fun a x => x :: a) (fun a => Nat.eqb (length a) k) L acc) = rev (firstn (k - length acc) L) ++ acc.
Proof.
  intros k L. induction L as [|n L IH]; intros acc Hlt.
  - cbn. now rewrite firstn_nil.
  - cbn [sfold]. destruct (Nat.eqb (length (n :: acc)) k) eqn:E.
    + apply Nat.eqb_eq in E. cbn [length] in E. cbn [fst]. replace (k - length acc) with 1 by lia. reflexivity.
    + apply Nat.eqb_neq in E. cbn [length] in E. rewrite IH by (cbn; lia). cbn [length].
      replace (k - length acc) with (S (k - S (length acc))) by lia. cbn [firstn rev]. now rewrite <- app_assoc.
Qed.

(* a traversal with FindNodesCallback and a positive result limit k returns the first k nodes of the unlimited traversal
   (hence, by traversal_eq_bruteforce, k distinct nodes the brute-force test accepts, or all of them when there are fewer) *)
Theorem find_nodes_limit_lemma : forall (fx : rfixes) (t : tree) (m : matcher) (root : path) (uf : bool) (k : nat),
  1 <= k -> find_nodes fx t m root uf (Some k) = firstn k (visits t m root uf (rf_guard fx)).
Proof.
  intros fx t m root uf k Hk. unfold find_nodes, do_traversal.
  rewrite (trav_ext _ _ _ _ _ _ _ _ (collect_cb_S k)). rewrite trav_stop.
  rewrite sfold_collect by (cbn; lia). cbn [length]. rewrite Nat.sub_0_r, app_nil_r, rev_involutive.
  now rewrite visits_V.
Qed.

Theorem find_nodes_nolimit_lemma : forall (fx : rfixes) (t : tree) (m : matcher) (root : path) (uf : bool),
  find_nodes fx t m root uf None = visits t m root uf (rf_guard fx).
Proof. reflexivity. Qed.

(* session r gets the Message iff it may be sent to and owns a node that some pattern of the table matches clause by clause
   and whose Message passes THAT pattern's filter *)
Lemma gets_spec : forall (st : rstate) (s : sid) (self_ok : bool) (mt : matcher) (r : sid),
  matcher_wf mt ->
  (gets st s self_ok mt r = true <->
   eligible s self_ok r = true /\
   exists n e, In n (sv_tree (rs_srv st)) /\ In e (all_entries mt) /\ owned_by (sv_sessions (rs_srv st)) r n = true /\
               pat_matches (e_pat e) (n_path n) = true /\ filter_ok (e_flt e) (Some (n_data n)) = true).
Proof.
  intros st s self_ok mt r MWF. unfold gets. rewrite andb_true_iff, existsb_exists. split.
  - intros [He [n [Hn Hx]]]. split; [assumption|]. apply andb_true_iff in Hx. destruct Hx as [Ho Hm].
    apply (matches_path_spec mt _ _ MWF) in Hm. destruct Hm as [e [H1 [H2 H3]]]. exists n, e. now repeat split.
  - intros [He [n [e [Hn [H1 [Ho [H2 H3]]]]]]]. split; [assumption|]. exists n. split; [assumption|].
    apply andb_true_iff. split; [assumption|]. apply (matches_path_spec mt _ _ MWF). exists e. now repeat split.
Qed.

(* PutPathsFromMessage: with at least as many filter values as keys, key i gets filter value i (no bleed-down) *)
Lemma paths_from_message_aligned : forall (keys : list spath) (flts : list (option qfilter)) (cur : option qfilter),
  length keys <= length flts ->
  paths_from_message keys flts cur = combine (map fix_path keys) (firstn (length keys) flts).
Proof.
  induction keys as [|k keys IH]; intros flts cur H; [reflexivity|].
  destruct flts as [|f flts]; [cbn in H; lia|]. cbn [paths_from_message map length firstn combine tl]. f_equal.
  apply IH. cbn in H. lia.
Qed.

(* ... and a key beyond the filter values inherits the last filter value *)
Lemma paths_from_message_bleed : forall (keys : list spath) (cur : option qfilter),
  paths_from_message keys [] cur = map (fun k => (fix_path k, cur)) keys.
Proof. induction keys as [|k keys IH]; intros cur; [reflexivity|]. cbn [paths_from_message map tl]. f_equal. apply IH. Qed.

(* AbstractReflectSession::BroadcastToAllSessions *)
Lemma broadcast_spec : forall (sessions : list session) (s : sid) (to_self : bool) (d : dlv) (infos : list rinfo),
  NoDup (map s_id sessions) ->
  broadcast sessions s to_self d infos
  = map (fun ri => if eligible s to_self (ri_id ri) && sid_mem (ri_id ri) (map s_id sessions) then put_inbox s d ri else ri) infos.
Proof.
  intros sessions s to_self d infos ND. unfold broadcast.
  transitivity (fold_left (fun inf r => deliver_to inf s r d) (filter (eligible s to_self) (map s_id sessions)) infos).
  - clear ND. revert infos. induction sessions as [|ss l IH]; intros infos; [reflexivity|].
    cbn [fold_left map filter]. rewrite (orb_comm to_self). fold (eligible s to_self (s_id ss)).
    destruct (eligible s to_self (s_id ss)); apply IH.
  - rewrite deliver_fold by now apply NoDup_filter. apply map_ext. intros ri. now rewrite sid_mem_filter.
Qed.

(* who a Message handed in by session s is for (the statement of C05, as a function) *)
Definition route_targets (st : rstate) (s : sid) (ri : rinfo) (m : umsg) (r : sid) : bool :=
  match u_keys m with
  | _ :: _ => gets st s (ri_reflect ri) (matcher_of (u_keys m) (u_filters m)) r
  | [] =>
    if has_param (ri_params ri) PKeys then gets st s (ri_reflect ri) (ri_route ri) r
    else ri_gw2nb ri && eligible s (ri_reflect ri) r && sid_mem r (map s_id (sv_sessions (rs_srv st)))
  end.

Definition delivered (st : rstate) (s : sid) (ss : session) (ri : rinfo) (m : umsg) : rstate :=
  mkRS (rs_srv st)
       (map (fun x => if route_targets st s ri m (ri_id x)
                      then put_inbox s (mkD s (u_tag m) (overwrite (u_session m) (s_name ss))) x else x) (rs_info st)).

Theorem deliver_once_lemma : forall (st : rstate) (s : sid) (ss : session) (ri : rinfo) (m : umsg),
  tree_wf (sv_tree (rs_srv st)) -> (forall n, In n (sv_tree (rs_srv st)) -> Forall okname (n_path n)) ->
  NoDup (map s_id (sv_sessions (rs_srv st))) -> matcher_wf (ri_route ri) ->
  get_session (rs_srv st) s = Some ss -> get_info st s = Some ri -> in_cmd_range (u_what m) = false ->
  route_msg FX st s m = delivered st s ss ri m.
Proof.
  intros st s ss ri m TWF NOK NDS RWF Hs Hi Hw. unfold route_msg, delivered, route_targets. rewrite Hw, Hs, Hi.
  destruct (u_keys m) as [|k ks] eqn:Hk.
  - destruct (has_param (ri_params ri) PKeys).
    + unfold set_infos. now rewrite pass_traversal_once.
    + destruct (ri_gw2nb ri).
      * unfold set_infos. rewrite broadcast_spec by assumption. reflexivity.
      * destruct st as [srv infos]. cbn [rs_srv rs_info]. f_equal. rewrite <- (map_id infos) at 1. reflexivity.
  - unfold set_infos. rewrite pass_traversal_once; [reflexivity | assumption | assumption | apply m_of_list_wf].
Qed.

End RouteProofs.
