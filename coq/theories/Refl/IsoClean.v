(* Refl/IsoClean.v -- C06: [detach_clean], the statement of Refl/IsoDetach.v for a connection that ends after ANY history. *)
From Coq Require Import List NArith ZArith Bool Arith Lia.
From Muscle Require Import Refl.Base Refl.BaseProofs Refl.Tree Refl.Matcher Refl.MatcherProofs
     Refl.Traverse Refl.Session Refl.Server Refl.ServerProofs Refl.IsoModel Refl.IsoBase Refl.IsoFrame Refl.IsoTold
     Refl.IsoDetach Refl.IsoRun.
Import ListNotations.

Section Clean.
Context {M : MatchOps} {L : MatchLaws M}.
Variable fx : fixes.
Hypothesis guard_on : fx_guard fx = true.

(* what "session s (record ss, state xs) has left without a trace, and everybody concerned knows" means for the state xs' *)
Record left_clean (xs : xserver) (s : sid) (ss : session) (xs' : xserver) : Prop := mkClean {
  (* its whole subtree is gone *)
  lc_subtree : forall n, In n (sv_tree (xs_sv xs')) -> is_prefix (session_dir ss) (n_path n) = false;
  (* the host node is there iff another session lives on that host *)
  lc_host : has_node (sv_tree (xs_sv xs')) [s_host ss] = true <->
            exists x, In x (sv_sessions (xs_sv xs)) /\ s_id x <> s /\ s_host x = s_host ss;
  (* no subscriber table mentions it *)
  lc_marks : forall n, In n (sv_tree (xs_sv xs')) -> ~ In s (map fst (n_subs n)) /\ tbl_get (n_subs n) s = 0%N;
  (* it is no longer a session, holds no privilege entry, nobody is marked for removal *)
  lc_gone : get_session (xs_sv xs') s = None /\ priv_get (xs_priv xs') s = 0%N /\ xs_ducks xs' = [];
  (* every other session is still there with the same identity, subscriptions, limits and privileges *)
  lc_others : map core (sv_sessions (xs_sv xs')) = map core (filter (fun x => negb (N.eqb (s_id x) s)) (sv_sessions (xs_sv xs))) /\
              priv_remove (xs_priv xs') s = priv_remove (xs_priv xs) s;
  (* every remaining node is an old node outside the subtree, unchanged but for the departed session's mark ... *)
  lc_rest : forall n', In n' (sv_tree (xs_sv xs')) ->
            exists n, In n (sv_tree (xs_sv xs)) /\ n_path n' = n_path n /\ n_data n' = n_data n /\
                      tbl_without s (n_subs n') = tbl_without s (n_subs n);
  (* ... and every old node outside the subtree, except possibly the host node, is still there *)
  lc_kept : forall n, In n (sv_tree (xs_sv xs)) -> is_prefix (session_dir ss) (n_path n) = false -> n_path n <> [s_host ss] ->
            has_node (sv_tree (xs_sv xs')) (n_path n) = true;
  (* every other session owed a notice for a node of the subtree has been sent (or has pending) its removal *)
  lc_told : forall n t st, In n (sv_tree (xs_sv xs)) -> is_prefix (session_dir ss) (n_path n) = true ->
            t <> s -> get_session (xs_sv xs) t = Some st -> owed st n -> told (xs_sv xs') t (n_path n)
}.

(* in any state satisfying the invariant *)
Lemma xdetach_clean : forall B xs s ss, small B -> inv B (xs_sv xs) -> xs_ducks xs = [] ->
  get_session (xs_sv xs) s = Some ss -> left_clean xs s ss (xdetach fx xs s).
Proof.
  intros B xs s ss HB I Hd Hss. constructor; cbn [xs_sv xs_priv xs_ducks xdetach].
  - now apply (detach_subtree_gone fx guard_on B).
  - now apply (detach_host fx guard_on B).
  - now apply (detach_no_marks fx guard_on B _ s ss).
  - split; [apply (detach_sessions fx guard_on B _ s ss I Hss)|]. split; [now rewrite priv_get_remove, N.eqb_refl|]. now rewrite Hd.
  - split; [apply (detach_sessions fx guard_on B _ s ss I Hss)|apply priv_remove_idem].
  - now apply (detach_rest_untouched fx guard_on B _ s ss).
  - now apply (detach_rest_kept fx guard_on B _ s ss).
  - intros n t st Hn Hp Hne Hst Ho. now apply (detach_tells fx B _ s ss n t st).
Qed.

(* DETACH CLEAN: whatever happened before (any history of arrivals, departures and commands, hostile or not, from any number
   of sessions), when the connection of an attached session s ends, s has left without a trace and everybody concerned knows.
   The only conditions on the history: sessions arrive under fresh (host, id) pairs, and fewer than 2^31 - 1 subscription
   strings are ever added (the counts in the subscriber tables are uint32 / the deltas int32). *)
Theorem detach_clean : forall evs s ss,
  small (xrun_budget evs) -> xwf_run fx empty_xserver evs ->
  let xs := xrun fx evs empty_xserver in
  get_session (xs_sv xs) s = Some ss ->
  left_clean xs s ss (xstep fx xs (XDetach s)).
Proof.
  intros evs s ss HB Hwf xs Hss. cbn [xstep].
  apply (xdetach_clean (xrun_budget evs)); [exact HB| | |exact Hss].
  - now apply reachable_inv.
  - apply xrun_no_ducks. reflexivity.
Qed.

End Clean.
