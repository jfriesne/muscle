(* Refl/IsoNever.v -- C06, as-if-never, the server level: sessions arriving and leaving keep the simulation relation of
   Refl/IsoSim.v, and the arrival and departure of s itself leave the erased side alone.  (Dispatcher level: Refl/IsoAsIf.v.) *)
From Coq Require Import List NArith ZArith Bool Arith Lia.
From Muscle Require Import Refl.Base Refl.BaseProofs Refl.Tree Refl.TreeProofs Refl.Matcher Refl.MatcherProofs
     Refl.Traverse Refl.TraverseSpec Refl.Session Refl.Server Refl.ServerProofs Refl.IsoModel Refl.IsoBase Refl.IsoFrame
     Refl.IsoSimBase Refl.IsoSim Refl.IsoDetach Refl.IsoHosts.
Import ListNotations.

Section Never.
Context {M : MatchOps} {L : MatchLaws M}.
Variable fx : fixes.
Hypothesis guard_on : fx_guard fx = true.
Variable s : sid.

(* ------------------------------------------------------------------ host nodes are invisible to the relation *)

Lemma rel_add_host_l : forall od tF tE h, rel_tree s od tF tE -> nonhost h = false -> rel_tree s od (add_node tF h) tE.
Proof.
  intros od tF tE h R Hh. unfold rel_tree, add_node in *. rewrite filter_app. cbn [filter]. unfold vis at 2. rewrite Hh. cbn [andb].
  now rewrite app_nil_r.
Qed.

Lemma rel_add_host_r : forall od tF tE h, rel_tree s od tF tE -> nonhost h = false -> rel_tree s od tF (add_node tE h).
Proof.
  intros od tF tE h R Hh. unfold rel_tree, add_node in *. rewrite body_app. unfold body at 2. cbn [filter]. rewrite Hh.
  now rewrite app_nil_r.
Qed.

Lemma host_hidden : forall od h n, n_path n = [h] -> nonhost n = false /\ vis od n = false.
Proof. intros od h n H. unfold vis, nonhost. now rewrite H. Qed.

(* ------------------------------------------------------------------ another session arrives *)

Lemma find_session_app_other : forall l (x : session) k, s_id x <> k -> find_session (l ++ [x]) k = find_session l k.
Proof.
  induction l as [|y l IH]; intros x k Hx; cbn.
  - assert (N.eqb (s_id x) k = false) as -> by now apply N.eqb_neq. reflexivity.
  - destruct (N.eqb (s_id y) k); [reflexivity|now apply IH].
Qed.

Lemma others_app : forall l l', others s (l ++ l') = others s l ++ others s l'.
Proof. intros. unfold others. apply filter_app. Qed.

(* the new session appended on both sides *)
Lemma rel_append_session : forall F E (x : session), rel s F E -> s_id x <> s ->
  rel s (mkServer (sv_tree F) (sv_sessions F ++ [x]) (sv_dirty F)) (mkServer (sv_tree E) (sv_sessions E ++ [x]) (sv_dirty E)).
Proof.
  intros F E x [R1 R2] Hx. split.
  - unfold sdir, get_session. cbn [sv_sessions sv_tree]. rewrite find_session_app_other by exact Hx. exact R1.
  - unfold rel_sess, all_params in *. cbn [sv_sessions]. rewrite map_app, R2, others_app, map_app. f_equal.
    unfold others. cbn [filter]. assert (N.eqb (s_id x) s = false) as -> by now apply N.eqb_neq. reflexivity.
Qed.

Definition with_host (sv : server) (by_ : sid) (host : name) : server :=
  if has_node (sv_tree sv) [host] then sv
  else notify_changed (set_tree sv (add_node (sv_tree sv) (mkNode [host] empty_payload (new_node_table sv [host])))) by_ [host] empty_payload None false.

Lemma with_host_params : forall sv by_ host, all_params (with_host sv by_ host) = all_params sv.
Proof.
  intros. unfold with_host. destruct (has_node _ _); [reflexivity|]. rewrite (proj2 (notify_changed_same _ _ _ _ _ _)). reflexivity.
Qed.

Lemma rel_set_tree_l : forall F E tF, rel s F E -> rel_tree s (sdir s F) tF (sv_tree E) -> rel s (set_tree F tF) E.
Proof. intros F E tF [_ R2] R. split; [exact R|exact R2]. Qed.

Lemma rel_set_tree_r : forall F E tE, rel s F E -> rel_tree s (sdir s F) (sv_tree F) tE -> rel s F (set_tree E tE).
Proof. intros F E tE [_ R2] R. split; [exact R|exact R2]. Qed.

Lemma rel_with_host : forall F E by_ host, rel s F E -> rel s (with_host F by_ host) (with_host E by_ host).
Proof.
  intros F E by_ host R.
  assert (HL : rel s (with_host F by_ host) E).
  { unfold with_host. destruct (has_node (sv_tree F) [host]); [exact R|].
    eapply rel_same_state; [apply notify_changed_same|apply same_state_refl|].
    apply rel_set_tree_l; [exact R|]. apply rel_add_host_l; [exact (proj1 R)|reflexivity]. }
  unfold with_host at 2. destruct (has_node (sv_tree E) [host]); [exact HL|].
  eapply rel_same_state; [apply same_state_refl|apply notify_changed_same|].
  apply rel_set_tree_r; [exact HL|]. apply rel_add_host_r; [exact (proj1 HL)|reflexivity].
Qed.

Lemma attach_unfold : forall sv t host nm,
  attach sv t host nm =
  let ss := mkSession t host nm empty_matcher default_max_items None [] in
  let sv1 := with_host (mkServer (sv_tree sv) (sv_sessions sv ++ [ss]) (sv_dirty sv)) t host in
  push_all (notify_changed (set_tree sv1 (add_node (sv_tree sv1) (mkNode [host; nm] empty_payload (new_node_table sv1 [host; nm]))))
                           t [host; nm] empty_payload None false).
Proof. reflexivity. Qed.

Lemma attach_params : forall sv t host nm,
  all_params (attach sv t host nm) = map sparams (sv_sessions sv ++ [mkSession t host nm empty_matcher default_max_items None []]).
Proof.
  intros. rewrite attach_unfold. cbv zeta. rewrite (proj2 (push_all_same _)), (proj2 (notify_changed_same _ _ _ _ _ _)).
  cbn [set_tree sv_sessions all_params]. apply (with_host_params (mkServer _ _ _)).
Qed.

Lemma attach_sim : forall F E t host nm, rel s F E -> t <> s -> hidden (sdir s F) [host; nm] = false ->
  rel s (attach F t host nm) (attach E t host nm).
Proof.
  intros F E t host nm R Ht Hv. rewrite !attach_unfold. cbv zeta.
  set (ss := mkSession t host nm empty_matcher default_max_items None []).
  assert (R0 : rel s (mkServer (sv_tree F) (sv_sessions F ++ [ss]) (sv_dirty F)) (mkServer (sv_tree E) (sv_sessions E ++ [ss]) (sv_dirty E)))
    by (apply rel_append_session; [exact R|exact Ht]).
  assert (Hs0 : sdir s (mkServer (sv_tree F) (sv_sessions F ++ [ss]) (sv_dirty F)) = sdir s F).
  { unfold sdir, get_session. cbn [sv_sessions]. now rewrite find_session_app_other by exact Ht. }
  pose proof (rel_with_host _ _ t host R0) as R1.
  set (F1 := with_host (mkServer (sv_tree F) (sv_sessions F ++ [ss]) (sv_dirty F)) t host) in *.
  set (E1 := with_host (mkServer (sv_tree E) (sv_sessions E ++ [ss]) (sv_dirty E)) t host) in *.
  assert (Hs1 : sdir s F1 = sdir s F) by (unfold F1; rewrite (sdir_params s _ _ (with_host_params _ _ _)); exact Hs0).
  eapply rel_same_state; [eapply same_state_trans; [apply notify_changed_same|apply push_all_same]
                         |eapply same_state_trans; [apply notify_changed_same|apply push_all_same]|].
  apply rel_set_tree; [exact R1|]. apply rel_add; [exact (proj1 R1)| |].
  - unfold strip. cbn [n_path n_data n_subs]. f_equal. symmetry. apply rel_new_node_table. exact (proj2 R1).
  - unfold vis, nonhost. cbn [n_path length]. rewrite Hs1, Hv. reflexivity.
Qed.

(* ------------------------------------------------------------------ another session leaves *)

Lemma detach_params : forall sv t, all_params (detach fx sv t) = map sparams (filter (fun x => negb (N.eqb (s_id x) t)) (sv_sessions sv)).
Proof.
  intros sv t. unfold detach. destruct (get_session sv t) as [ss|] eqn:Hs.
  - unfold all_params. cbn [sv_sessions]. apply (others_params_eq t).
    destruct (has_node (sv_tree sv) [s_host ss]); [|reflexivity].
    match goal with |- map sparams (sv_sessions (push_all ?X)) = _ => change (all_params (push_all X) = all_params sv); set (sv2 := X) end.
    rewrite (proj2 (push_all_same sv2)). unfold sv2.
    match goal with |- all_params (if ?c then ?a else ?b) = _ => assert (Ha : all_params a = all_params sv) end.
    { destruct (has_node _ _); [apply remove_subtree_params|reflexivity]. }
    destruct (has_children _ _); [exact Ha|]. rewrite remove_subtree_params. exact Ha.
  - (* no such session: nothing is filtered *)
    unfold all_params. f_equal. symmetry. unfold get_session in Hs.
    induction (sv_sessions sv) as [|x l IH]; [reflexivity|]. cbn in *. destruct (N.eqb (s_id x) t); [discriminate|]. cbn. f_equal. now apply IH.
Qed.

Lemma rel_tree_without : forall od tF tE (stF stE : session), rel_tree s od tF tE -> wf_tree tF -> wf_tree tE ->
  session_dir stE = session_dir stF -> s_subs stE = s_subs stF -> s_id stE = s_id stF -> s_id stF <> s ->
  rel_tree s od (tree_without tF stF) (tree_without tE stE).
Proof.
  intros od tF tE stF stE R WF WE Hd Hsub Hid Hne. unfold tree_without. rewrite Hd, Hsub, Hid.
  assert (Hh : s_host stE = s_host stF) by (unfold session_dir in Hd; congruence). rewrite Hh.
  apply rel_map.
  - pose proof (rel_prune s od tF tE (session_dir stF) R) as R1.
    set (t1F := prune_tree tF (session_dir stF)) in *. set (t1E := prune_tree tE (session_dir stF)) in *.
    assert (W1F : wf_tree t1F) by now apply wf_tree_prune. assert (W1E : wf_tree t1E) by now apply wf_tree_prune.
    unfold rel_tree in *. unfold body in *.
    rewrite (prune_empty_host t1E), (prune_empty_host t1F) by (auto; intros; now apply (host_hidden od (s_host stF))). exact R1.
  - intros n. destruct (matches_node _ _ _ _); reflexivity.
  - intros n. destruct (matches_node _ _ _ _); reflexivity.
  - intros n. rewrite strip_path. destruct (matches_node _ _ _ _); [now apply strip_adj_other|reflexivity].
Qed.

Lemma filter_filter_swap : forall (l : list session) (a b : sid),
  filter (fun x => negb (N.eqb (s_id x) a)) (filter (fun x => negb (N.eqb (s_id x) b)) l) =
  filter (fun x => negb (N.eqb (s_id x) b)) (filter (fun x => negb (N.eqb (s_id x) a)) l).
Proof. intros. apply filter_comm. Qed.

Lemma get_session_detach_other : forall X a b, a <> b ->
  option_map sparams (get_session (detach fx X a) b) = option_map sparams (get_session X b).
Proof.
  intros X a b Hab. unfold get_session. rewrite <- (find_session_filter (sv_sessions X) a b Hab).
  apply (find_session_proj _ sparams (fun c => fst (fst (fst (fst c))))); [reflexivity|apply detach_params].
Qed.

Lemma detach_sdir : forall F t, t <> s -> sdir s (detach fx F t) = sdir s F.
Proof. intros F t Ht. now apply (sdir_lookup s), get_session_detach_other. Qed.

Lemma detach_sim : forall B F E t, inv B F -> inv B E -> rel s F E -> t <> s -> rel s (detach fx F t) (detach fx E t).
Proof.
  intros B F E t IF IE R Ht.
  pose proof (rel_get_session s F E t (proj2 R) Ht) as Hg.
  destruct (get_session F t) as [a|] eqn:Ha; destruct (get_session E t) as [b|] eqn:Hb; try contradiction.
  2:{ unfold detach. rewrite Ha, Hb. exact R. }
  destruct (detach_shape fx guard_on B F t a IF Ha) as [HtF _]. destruct (detach_shape fx guard_on B E t b IE Hb) as [HtE _].
  pose proof (detach_params F t) as HpF. pose proof (detach_params E t) as HpE.
  apply sparams_parts in Hg as [G1 [G2 [G3 [G4 _]]]].
  assert (Hid : s_id a = t) by (apply find_session_some in Ha; tauto).
  pose proof (detach_sdir F t Ht) as Hsd.
  split.
  - rewrite Hsd, HtF, HtE. apply rel_tree_without; [exact (proj1 R)|apply (inv_tree _ _ _ IF)|apply (inv_tree _ _ _ IE)| | | |].
    + unfold session_dir. now rewrite G2, G3.
    + exact G4.
    + exact G1.
    + congruence.
  - unfold rel_sess. rewrite HpE.
    change (filter (fun x => negb (N.eqb (s_id x) t)) (sv_sessions E)) with (others t (sv_sessions E)).
    rewrite (others_params_eq t (others s (sv_sessions F)) (sv_sessions E) (proj2 R)).
    transitivity (map sparams (others s (others t (sv_sessions F)))).
    + f_equal. unfold others. apply filter_comm.
    + symmetry. apply (others_params_eq s). exact HpF.
Qed.

(* ------------------------------------------------------------------ the events of s itself: the erased side stands still *)

(* with s attached at d, the relation sees the full tree only through s's foreign view *)
Lemma vis_foreign_view : forall d t, map (strip s) (filter (vis (Some d)) t) = filter nonhost (foreign_view s d t).
Proof.
  intros d t. unfold foreign_view. rewrite (filter_map_pres _ nonhost (strip s)) by reflexivity. f_equal.
  unfold vis, hidden. rewrite (filter_andb _ nonhost (fun n => negb (is_prefix d (n_path n)))). reflexivity.
Qed.

Lemma sdir_idents : forall F F', idents F' = idents F -> sdir s F' = sdir s F.
Proof.
  intros F F' H. unfold sdir. pose proof (get_session_idents F F' s H) as E.
  destruct (get_session F s) as [a|], (get_session F' s) as [b|]; cbn in *; try discriminate; [|reflexivity].
  injection E as _ E2 E3. unfold session_dir. now rewrite E2, E3.
Qed.

(* anything that respects s's frame keeps the relation *)
Lemma rel_frame : forall F F' E ss, rel s F E -> get_session F s = Some ss -> frame s (session_dir ss) F F' -> rel s F' E.
Proof.
  intros F F' E ss [R1 R2] Hs [Hfv [Hop Hid]]. split.
  - rewrite (sdir_idents F F' Hid). unfold sdir in *. rewrite Hs in *. cbn [option_map] in *.
    unfold rel_tree in *. rewrite vis_foreign_view in *. now rewrite Hfv.
  - unfold rel_sess in *. rewrite R2. symmetry. exact Hop.
Qed.

Lemma filter_add_false : forall (f : node -> bool) t n, f n = false -> filter f (add_node t n) = filter f t.
Proof. intros f t n H. unfold add_node. rewrite filter_app. cbn [filter]. rewrite H. apply app_nil_r. Qed.

Lemma vis_own_dir : forall d dat tb, vis (Some d) (mkNode d dat tb) = false.
Proof. intros. unfold vis, hidden. cbn [n_path]. rewrite is_prefix_refl. apply andb_false_r. Qed.

Lemma vis_host : forall od h dat tb, vis od (mkNode [h] dat tb) = false.
Proof. reflexivity. Qed.

Lemma find_session_app_new : forall l (x : session), find_session l (s_id x) = None -> find_session (l ++ [x]) (s_id x) = Some x.
Proof.
  induction l as [|y l IH]; intros x H; cbn in *; [now rewrite N.eqb_refl|].
  destruct (N.eqb (s_id y) (s_id x)); [discriminate|now apply IH].
Qed.

Lemma fresh_dir_empty : forall B F host nm, inv B F -> (forall x, In x (sv_sessions F) -> session_dir x <> [host; nm]) ->
  forall n, In n (sv_tree F) -> is_prefix [host; nm] (n_path n) = false.
Proof.
  intros B F host nm I Hfresh n Hn. destruct (is_prefix [host; nm] (n_path n)) eqn:E0; [|reflexivity]. exfalso.
  apply is_prefix_spec in E0 as [r Hr]. destruct (inv_tree _ _ _ I) as [_ [_ Hpre]].
  destruct (Hpre n [host; nm] r Hn Hr) as [c [Hc1 Hc2]]; [discriminate|].
  destruct (inv_depth2 _ _ _ I c Hc1) as [x [Hx1 Hx2]]; [now rewrite Hc2|]. apply (Hfresh x Hx1). congruence.
Qed.

(* s arrives *)
Lemma attach_self : forall B F E host nm, inv B F -> rel s F E -> get_session F s = None ->
  (forall x, In x (sv_sessions F) -> session_dir x <> [host; nm]) ->
  rel s (attach F s host nm) E.
Proof.
  intros B F E host nm I [R1 R2] Hs Hfresh. rewrite attach_unfold. cbv zeta.
  set (ss := mkSession s host nm empty_matcher default_max_items None []).
  set (F0 := mkServer (sv_tree F) (sv_sessions F ++ [ss]) (sv_dirty F)).
  assert (Hs0 : get_session F0 s = Some ss) by (unfold get_session, F0; cbn [sv_sessions]; now apply (find_session_app_new _ ss)).
  assert (Hnone : sdir s F = None) by (unfold sdir; now rewrite Hs).
  rewrite Hnone in R1.
  pose proof (fresh_dir_empty B F host nm I Hfresh) as Hout.
  set (F1 := with_host F0 s host).
  assert (HsF1 : sdir s F1 = Some [host; nm]).
  { unfold F1. rewrite (sdir_params s _ _ (with_host_params _ _ _)). unfold sdir. now rewrite Hs0. }
  eapply rel_same_state; [eapply same_state_trans; [apply notify_changed_same|apply push_all_same]|apply same_state_refl|].
  split.
  - cbn [sv_tree set_tree]. rewrite sdir_set_tree, HsF1. unfold rel_tree in *. rewrite R1. f_equal.
    rewrite filter_add_false by apply vis_own_dir.
    assert (Ht1 : filter (vis (Some [host; nm])) (sv_tree F1) = filter (vis (Some [host; nm])) (sv_tree F)).
    { unfold F1, with_host. destruct (has_node (sv_tree F0) [host]); [reflexivity|].
      rewrite (proj1 (notify_changed_same _ _ _ _ _ _)). cbn [sv_tree set_tree F0]. apply filter_add_false. apply vis_host. }
    rewrite Ht1. apply filter_ext_in. intros n Hn. unfold vis, hidden. now rewrite (Hout n Hn).
  - unfold rel_sess in *. cbn [sv_sessions set_tree]. unfold F1. rewrite R2.
    transitivity (map sparams (others s (sv_sessions F0))).
    + unfold F0. cbn [sv_sessions]. rewrite others_app. unfold others at 3. cbn [filter ss s_id]. rewrite N.eqb_refl. cbn [negb]. now rewrite app_nil_r.
    + symmetry. apply (others_params_eq s). apply with_host_params.
Qed.

Lemma vis_prune : forall d t, filter (vis None) (prune_tree t d) = filter (vis (Some d)) t.
Proof.
  intros d t. unfold prune_tree. induction t as [|n r IH]; [reflexivity|]. cbn [filter]. unfold vis at 2, hidden.
  destruct (is_prefix d (n_path n)); cbn [negb filter].
  - rewrite andb_false_r. exact IH.
  - unfold vis at 1, hidden. cbn [negb]. destruct (nonhost n); cbn [andb]; [now rewrite IH|exact IH].
Qed.

Lemma strip_adj_self : forall delta n, strip s (adj_node s delta n) = strip s n.
Proof. intros. unfold strip, adj_node. cbn [n_path n_data n_subs]. f_equal. apply tbl_without_adjust. Qed.

(* s leaves *)
Lemma detach_self : forall B F E ss, inv B F -> rel s F E -> get_session F s = Some ss -> rel s (detach fx F s) E.
Proof.
  intros B F E ss I [R1 R2] Hs.
  destruct (detach_shape fx guard_on B F s ss I Hs) as [Ht _]. pose proof (detach_params F s) as Hp.
  assert (Hid : s_id ss = s) by (apply find_session_some in Hs; tauto).
  assert (Hnone : sdir s (detach fx F s) = None).
  { unfold sdir. destruct (detach_sessions fx guard_on B F s ss I Hs) as [Hn _]. now rewrite Hn. }
  split.
  - rewrite Hnone, Ht. unfold sdir in R1. rewrite Hs in R1. cbn [option_map] in R1. unfold rel_tree in *. rewrite R1.
    unfold tree_without. rewrite Hid.
    set (t1 := prune_tree (sv_tree F) (session_dir ss)).
    assert (W1 : wf_tree t1) by (apply wf_tree_prune, (inv_tree _ _ _ I)).
    rewrite (filter_map_pres _ (vis None)) by (intros n; unfold vis, nonhost, hidden; destruct (matches_node _ _ _ _); reflexivity).
    rewrite map_map.
    rewrite (map_ext (fun x => strip s (if matches_node (s_subs ss) (n_path x) None 0 then adj_node s cleanup_delta x else x)) (strip s))
      by (intros n; destruct (matches_node _ _ _ _); [apply strip_adj_self|reflexivity]).
    f_equal.
    rewrite (prune_empty_host t1) by (auto; intros; now apply (host_hidden None (s_host ss))). symmetry. apply vis_prune.
  - unfold rel_sess in *. rewrite R2.
    transitivity (map sparams (others s (others s (sv_sessions F)))).
    + f_equal. unfold others. symmetry. apply filter_absorb. auto.
    + symmetry. apply (others_params_eq s). exact Hp.
Qed.

End Never.
