(* Refl/BaseProofs.v -- the laws assumed of the external matching code; basic facts about paths, patterns, lists
   without duplicates, and the first element of a list with a given key. *)
From Coq Require Import List NArith ZArith Bool Arith Lia.
From Muscle Require Import Refl.Base.
Import ListNotations.

(* What the theorems need of regex/StringMatcher (C15) -- premises, carried by every theorem that uses them. *)
Class MatchLaws (M : MatchOps) := {
  clause_eqb_spec : forall a b : clause, clause_eqb a b = true <-> a = b;
  cstar_matches : forall k : name, cmatch cstar k = true;
  ckeys_spec : forall (c : clause) (ks : list name), ckeys c = Some ks -> forall k : name, cmatch c k = true <-> In k ks
}.

Lemma name_eqb_eq : forall a b : name, name_eqb a b = true <-> a = b.
Proof. intros; apply N.eqb_eq. Qed.

Lemma name_eqb_refl : forall a : name, name_eqb a a = true.
Proof. intros; apply N.eqb_refl. Qed.

Lemma path_eqb_eq : forall p q : path, path_eqb p q = true <-> p = q.
Proof.
  induction p as [|a p IH]; destruct q as [|b q]; cbn; split; intros H; try congruence; auto.
  - apply andb_true_iff in H as [H1 H2]. apply name_eqb_eq in H1. apply IH in H2. congruence.
  - inversion H; subst. rewrite name_eqb_refl. cbn. now apply IH.
Qed.

Lemma path_eqb_refl : forall p : path, path_eqb p p = true.
Proof. intros; now apply path_eqb_eq. Qed.

Lemma path_eqb_neq : forall p q : path, path_eqb p q = false <-> p <> q.
Proof.
  intros p q; split; intros H.
  - intros E. apply path_eqb_eq in E. congruence.
  - destruct (path_eqb p q) eqn:E; auto. apply path_eqb_eq in E. contradiction.
Qed.

Lemma path_eqb_sym : forall p q : path, path_eqb p q = path_eqb q p.
Proof.
  intros p q. destruct (path_eqb p q) eqn:E.
  - apply path_eqb_eq in E; subst. now rewrite path_eqb_refl.
  - symmetry. apply path_eqb_neq. apply path_eqb_neq in E. congruence.
Qed.

Lemma strip_prefix_spec : forall p q r, strip_prefix p q = Some r <-> q = p ++ r.
Proof.
  induction p as [|a p IH]; intros q r; cbn.
  - split; intros H; congruence.
  - destruct q as [|b q].
    + split; intros H; discriminate.
    + destruct (name_eqb a b) eqn:E.
      * apply name_eqb_eq in E; subst. rewrite IH. split; intros H; congruence.
      * split; intros H; try discriminate. inversion H; subst. rewrite name_eqb_refl in E. discriminate.
Qed.

Lemma strip_prefix_app : forall p r, strip_prefix p (p ++ r) = Some r.
Proof. intros; now apply strip_prefix_spec. Qed.

Lemma is_prefix_spec : forall p q, is_prefix p q = true <-> exists r, q = p ++ r.
Proof.
  intros p q. unfold is_prefix. destruct (strip_prefix p q) eqn:E.
  - apply strip_prefix_spec in E. split; eauto.
  - split; [discriminate|]. intros [r H]. apply strip_prefix_spec in H. congruence.
Qed.

Lemma is_prefix_refl : forall p, is_prefix p p = true.
Proof. intros. apply is_prefix_spec. exists []. now rewrite app_nil_r. Qed.

Lemma child_name_spec : forall p q k, child_name p q = Some k <-> q = p ++ [k].
Proof.
  intros p q k. unfold child_name. destruct (strip_prefix p q) as [r|] eqn:E.
  - apply strip_prefix_spec in E. subst q.
    destruct r as [|a [|b r]]; split; intros H; try discriminate; try congruence.
    + apply app_inv_head in H. discriminate.
    + apply app_inv_head in H. congruence.
    + apply app_inv_head in H. discriminate.
  - split; [discriminate|]. intros H. apply strip_prefix_spec in H. congruence.
Qed.

Lemma is_child_spec : forall p q, is_child p q = true <-> exists k, q = p ++ [k].
Proof.
  intros p q. unfold is_child. destruct (child_name p q) eqn:E.
  - apply child_name_spec in E. split; eauto.
  - split; [discriminate|]. intros [k H]. apply child_name_spec in H. congruence.
Qed.

Lemma last_name_snoc : forall p k, last_name (p ++ [k]) = k.
Proof. intros. unfold last_name. apply last_last. Qed.

Lemma parent_path_snoc : forall p k, parent_path (p ++ [k]) = p.
Proof. intros. unfold parent_path. apply removelast_last. Qed.

Lemma path_snoc_cases : forall p : path, p = [] \/ exists q k, p = q ++ [k].
Proof.
  intros p. destruct p as [|a p]; auto. right.
  destruct (@exists_last _ (a :: p)) as [q [k H]]; [discriminate|]. eauto.
Qed.

Lemma NoDup_map_inj : forall (A B : Type) (f : A -> B) l a b,
  NoDup (map f l) -> In a l -> In b l -> f a = f b -> a = b.
Proof.
  induction l as [|x l IH]; intros a b Hnd Ha Hb Hf; [contradiction|].
  cbn in Hnd. inversion Hnd as [|? ? Hx Hnd']; subst.
  destruct Ha as [Ha|Ha], Hb as [Hb|Hb]; subst; auto.
  - exfalso. apply Hx. rewrite Hf. now apply in_map.
  - exfalso. apply Hx. rewrite <- Hf. now apply in_map.
Qed.

Lemma NoDup_map_filter : forall (A B : Type) (f : A -> B) (g : A -> bool) l, NoDup (map f l) -> NoDup (map f (filter g l)).
Proof.
  intros A B f g. induction l as [|x l IH]; intros H; cbn; [constructor|].
  cbn in H. inversion H as [|? ? Hx H']; subst. destruct (g x); auto. cbn. constructor; auto.
  intros Hin. apply Hx. apply in_map_iff in Hin as [y [H1 H2]]. apply filter_In in H2 as [H2 _].
  rewrite <- H1. now apply in_map.
Qed.

Lemma NoDup_app_intro : forall (A : Type) (a b : list A),
  NoDup a -> NoDup b -> (forall x, In x a -> In x b -> False) -> NoDup (a ++ b).
Proof.
  induction a as [|x a IH]; intros b Ha Hb H; cbn; auto.
  inversion Ha as [|? ? Hx Ha']; subst. constructor.
  - rewrite in_app_iff. intros [H1|H1]; [contradiction|]. apply (H x); [now left|auto].
  - apply IH; auto. intros y Hy. apply H. now right.
Qed.

Lemma NoDup_flat_map : forall (A B : Type) (f : A -> list B) (l : list A),
  NoDup l -> (forall a, In a l -> NoDup (f a)) ->
  (forall a a' x, In a l -> In a' l -> a <> a' -> In x (f a) -> In x (f a') -> False) ->
  NoDup (flat_map f l).
Proof.
  induction l as [|a l IH]; intros Hl Hf Hd; cbn; [constructor|].
  inversion Hl as [|? ? Ha Hl']; subst.
  apply NoDup_app_intro.
  - apply Hf. now left.
  - apply IH; auto.
    + intros a' Ha'. apply Hf. now right.
    + intros a1 a2 x H1 H2. apply Hd; now right.
  - intros x Hx Hx'. apply in_flat_map in Hx' as [a' [Ha' Hx']].
    apply (Hd a a' x); auto; [now left|now right|]. intros E; subst. contradiction.
Qed.

(* The first element of a list with a given key.  find_node, find_session and entries_get (fixpoints of their own in the
   model files) are convertible to [kfind], so their lookup lemmas are instances of the three below. *)
Section KeyFind.
Variables (A K : Type) (key : A -> K) (eqb : K -> K -> bool).
Hypothesis eqb_eq : forall a b, eqb a b = true <-> a = b.

Fixpoint kfind (l : list A) (k : K) : option A :=
  match l with [] => None | x :: r => if eqb (key x) k then Some x else kfind r k end.

Lemma kfind_some : forall l k x, kfind l k = Some x -> In x l /\ key x = k.
Proof.
  induction l as [|y l IH]; intros k x H; cbn in H; [discriminate|].
  destruct (eqb (key y) k) eqn:E.
  - inversion H; subst. apply eqb_eq in E. split; [now left|exact E].
  - apply IH in H as [H1 H2]. split; [now right|exact H2].
Qed.

Lemma kfind_none : forall l k, kfind l k = None <-> forall x, In x l -> key x <> k.
Proof.
  induction l as [|y l IH]; intros k; cbn.
  - split; [intros _ x []|auto].
  - destruct (eqb (key y) k) eqn:E.
    + apply eqb_eq in E. split; [discriminate|]. intros H. exfalso. apply (H y); auto.
    + rewrite IH. split.
      * intros H x [Hx|Hx]; [subst x; intros Hk; apply eqb_eq in Hk; congruence|now apply H].
      * intros H x Hx. apply H. now right.
Qed.

Lemma kfind_in : forall l x, NoDup (map key l) -> In x l -> kfind l (key x) = Some x.
Proof.
  intros l x Hnd Hx. destruct (kfind l (key x)) as [y|] eqn:E.
  - apply kfind_some in E as [E1 E2]. f_equal. now apply (NoDup_map_inj _ _ key l).
  - exfalso. rewrite kfind_none in E. now apply (E x).
Qed.

End KeyFind.

Section PatFacts.
Context {M : MatchOps} {L : MatchLaws M}.

Lemma pat_eqb_eq : forall a b : pat, pat_eqb a b = true <-> a = b.
Proof.
  induction a as [|x a IH]; destruct b as [|y b]; cbn; split; intros H; try congruence; auto.
  - apply andb_true_iff in H as [H1 H2]. apply clause_eqb_spec in H1. apply IH in H2. congruence.
  - inversion H; subst. apply andb_true_iff. split; [now apply clause_eqb_spec | now apply IH].
Qed.

Lemma pat_eqb_refl : forall a : pat, pat_eqb a a = true.
Proof. intros; now apply pat_eqb_eq. Qed.

Lemma pat_eqb_neq : forall a b : pat, pat_eqb a b = false <-> a <> b.
Proof.
  intros a b; split; intros H.
  - intros E. apply pat_eqb_eq in E. congruence.
  - destruct (pat_eqb a b) eqn:E; auto. apply pat_eqb_eq in E. contradiction.
Qed.

Lemma pat_matches_length : forall (pt : pat) (p : path), pat_matches pt p = true -> length pt = length p.
Proof.
  induction pt as [|c pt IH]; intros p H; destruct p as [|k p]; cbn in *; try discriminate; auto.
  apply andb_true_iff in H as [_ H]. f_equal. now apply IH.
Qed.

Lemma pat_matches_app : forall (p1 p2 : pat) (q1 q2 : path),
  length p1 = length q1 ->
  pat_matches (p1 ++ p2) (q1 ++ q2) = pat_matches p1 q1 && pat_matches p2 q2.
Proof.
  induction p1 as [|c p1 IH]; intros p2 q1 q2 Hl; destruct q1 as [|k q1]; cbn in *; try discriminate; auto.
  rewrite IH by lia. now rewrite andb_assoc.
Qed.

Lemma pat_matches_nth : forall (pt : pat) (p : path) i,
  pat_matches pt p = true -> i < length pt -> cmatch (nth i pt cstar) (nth i p 0%N) = true.
Proof.
  induction pt as [|c pt IH]; intros p i H Hi; destruct p as [|k p]; cbn in *; try discriminate; try lia.
  apply andb_true_iff in H as [H1 H2]. destruct i; auto. apply IH; auto; lia.
Qed.

End PatFacts.
