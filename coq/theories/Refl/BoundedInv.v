(* Refl/BoundedInv.v -- C07: what one client's traffic cannot do to another client.
   No handler of the shared server model (Refl/Server.v) adds or drops a session other than by attach/detach of that
   very session: the list of session ids is an invariant of every command; the subscription updates (NodeChangedAux and
   what calls it) leave the tree alone as well ([frame], from ServerProofs.same_core).  Defines [ids], [frame] and the two
   halves [nca_prep] / [nca_flush] of NodeChangedAux. *)
From Coq Require Import List NArith ZArith Bool Arith Lia.
From Muscle Require Import Refl.Base Refl.Tree Refl.Matcher Refl.Traverse Refl.TraverseExit Refl.Session Refl.Server
  Refl.ServerProofs.
Import ListNotations.

(* case analysis on the condition of an `if` of the goal (the conditions are long expressions of the model) *)
Ltac outer_if := match goal with |- context [if ?c then _ else _] => destruct c end.

Lemma do_traversal_inv : forall {M : MatchOps} (A : Type) (cb : A -> node -> A * Z) (P : A -> Prop),
  (forall acc n, P acc -> P (fst (cb acc n))) ->
  forall t m root uf gf acc, P acc -> P (do_traversal cb t m root uf gf acc).
Proof.
  intros M A cb P Hcb t m root uf gf acc HP. unfold do_traversal. apply (trav_invariant _ _ _ _ _ _ _ P Hcb). exact HP.
Qed.

(* ------------------------------------------------------------------ the ids of the attached sessions *)

Section Ids.
Context {M : MatchOps}.

Definition ids (sv : server) : list sid := map s_id (sv_sessions sv).

Lemma ids_upd_session : forall sv s f, (forall x, s_id (f x) = s_id x) -> ids (upd_session sv s f) = ids sv.
Proof.
  intros sv s f Hf. unfold ids, upd_session. cbn [sv_sessions]. rewrite map_map. apply map_ext.
  intros x. destruct (N.eqb (s_id x) s); [apply Hf|reflexivity].
Qed.

Lemma ids_set_tree : forall sv t, ids (set_tree sv t) = ids sv.
Proof. reflexivity. Qed.

Lemma ids_set_dirty : forall sv b, ids (set_dirty sv b) = ids sv.
Proof. reflexivity. Qed.

Lemma s_id_push_pending : forall x : session, s_id (push_pending x) = s_id x.
Proof. intros x. unfold push_pending. destruct (s_pending x); reflexivity. Qed.

Lemma ids_push_all : forall sv, ids (push_all sv) = ids sv.
Proof.
  intros sv. unfold push_all. destruct (sv_dirty sv); [|reflexivity].
  unfold ids. cbn [sv_sessions]. rewrite map_map. apply map_ext. intros x. apply s_id_push_pending.
Qed.

Lemma find_session_ids : forall l w, (exists ss, find_session l w = Some ss) <-> In w (map s_id l).
Proof.
  induction l as [|x l IH]; intros w; cbn [find_session map In].
  - split; [intros [ss H]; discriminate|contradiction].
  - destruct (N.eqb (s_id x) w) eqn:E.
    + apply N.eqb_eq in E. split; [intros _; left; exact E|intros _; eexists; reflexivity].
    + apply N.eqb_neq in E. rewrite IH. split; [intros H; right; exact H|intros [H|H]; [contradiction|exact H]].
Qed.

Lemma get_session_ids : forall sv w, (exists ss, get_session sv w = Some ss) <-> In w (ids sv).
Proof. intros sv w. unfold get_session, ids. apply find_session_ids. Qed.

Lemma fold_left_ids : forall (B : Type) (f : server -> B -> server) (l : list B) (sv : server),
  (forall acc x, ids (f acc x) = ids acc) -> ids (fold_left f l sv) = ids sv.
Proof.
  intros B f l. induction l as [|x l IH]; intros sv Hf; cbn [fold_left].
  - reflexivity.
  - rewrite IH by exact Hf. apply Hf.
Qed.

(* who is attached, and the tree: the subscription updates (NodeChangedAux and everything above it) only write the
   pending / outgoing Messages of sessions and the dirty flag *)
Definition frame (sv : server) : list sid * tree := (ids sv, sv_tree sv).

Lemma frame_ids : forall sv sv', frame sv' = frame sv -> ids sv' = ids sv.
Proof. intros sv sv' H. exact (f_equal fst H). Qed.

Lemma frame_upd_session : forall sv s f, (forall x, s_id (f x) = s_id x) -> frame (upd_session sv s f) = frame sv.
Proof. intros sv s f Hf. unfold frame. rewrite ids_upd_session by exact Hf. reflexivity. Qed.

(* ServerProofs.same_core says the same of tree and (id, host, name, subscriptions) *)
Lemma same_core_frame : forall sv sv', same_core sv sv' -> frame sv' = frame sv.
Proof.
  intros sv sv' [Ht Hc]. unfold frame, ids. rewrite Ht.
  rewrite (map_core_proj _ s_id (fun c => fst (fst (fst c))) _ _ (fun _ => eq_refl) Hc). reflexivity.
Qed.

Lemma frame_push_all : forall sv, frame (push_all sv) = frame sv.
Proof. intros sv. apply same_core_frame, push_all_core. Qed.

(* NodeChangedAux is "write the pending Message" followed by its tail
   `if (_nextSubscriptionMessage && GetNumNames() >= _maxSubscriptionMessageItems) PushSubscriptionMessages()` *)
Definition nca_prep (sv : server) (s : sid) (ss : session) (p : path) (d : payload) (removed : bool) : server :=
  let pend := pending_or_new ss in
  if removed then
    if di_has_set pend p then
      let sv' := push_all (set_dirty (upd_session sv s (fun x => set_pending x (Some pend))) true) in
      set_dirty (upd_session sv' s (fun x => set_pending x (Some (di_add_removed empty_di p)))) true
    else set_dirty (upd_session sv s (fun x => set_pending x (Some (di_add_removed pend p)))) true
  else set_dirty (upd_session sv s (fun x => set_pending x (Some (di_add_set pend p d)))) true.

Definition nca_flush (sv1 : server) (s : sid) : server :=
  match get_session sv1 s with
  | Some ss1 =>
    match s_pending ss1 with
    | Some pd => if N.leb (s_max ss1) (di_num_names pd) then push_all sv1 else sv1
    | None => sv1
    end
  | None => sv1
  end.

Lemma node_changed_aux_flush : forall sv s p d removed,
  node_changed_aux sv s p d removed =
  match get_session sv s with Some ss => nca_flush (nca_prep sv s ss p d removed) s | None => sv end.
Proof. reflexivity. Qed.

Lemma nca_flush_cases : forall sv s, nca_flush sv s = sv \/ nca_flush sv s = push_all sv.
Proof.
  intros sv s. unfold nca_flush. destruct (get_session sv s) as [ss|]; [|left; reflexivity].
  destruct (s_pending ss) as [pd|]; [|left; reflexivity].
  destruct (N.leb (s_max ss) (di_num_names pd)); [right|left]; reflexivity.
Qed.

Lemma frame_node_changed_aux : forall sv s p d removed, frame (node_changed_aux sv s p d removed) = frame sv.
Proof. intros. apply same_core_frame, node_changed_aux_core. Qed.

Lemma node_changed_cases : forall sv s p d old removed,
  node_changed sv s p d old removed = sv \/ exists r, node_changed sv s p d old removed = node_changed_aux sv s p d r.
Proof.
  intros sv s p d old removed. unfold node_changed. destruct (get_session sv s) as [ss|]; [|left; reflexivity].
  cbv zeta. destruct (N.ltb 0 (m_nfilters (s_subs ss))); [|right; eexists; reflexivity].
  destruct removed, old; repeat outer_if; (left; reflexivity) || (right; eexists; reflexivity).
Qed.

Lemma frame_notify_changed : forall sv by_ p d old removed, frame (notify_changed sv by_ p d old removed) = frame sv.
Proof. intros. apply same_core_frame, notify_changed_core. Qed.

Lemma ids_node_changed_aux : forall sv s p d removed, ids (node_changed_aux sv s p d removed) = ids sv.
Proof. intros. exact (f_equal fst (frame_node_changed_aux _ _ _ _ _)). Qed.

Lemma ids_node_changed : forall sv s p d old removed, ids (node_changed sv s p d old removed) = ids sv.
Proof. intros. apply frame_ids, same_core_frame, node_changed_core. Qed.

Lemma ids_notify_changed : forall sv by_ p d old removed, ids (notify_changed sv by_ p d old removed) = ids sv.
Proof. intros. exact (f_equal fst (frame_notify_changed _ _ _ _ _ _)). Qed.

Lemma tree_notify_changed : forall sv by_ p d old removed, sv_tree (notify_changed sv by_ p d old removed) = sv_tree sv.
Proof. intros. exact (f_equal snd (frame_notify_changed _ _ _ _ _ _)). Qed.

Lemma ids_set_data_loop : forall cl sv by_ pp d dc dov q, ids (set_data_loop sv by_ pp cl d dc dov q) = ids sv.
Proof.
  induction cl as [|k rest IH]; intros sv by_ pp d dc dov q; cbn [set_data_loop].
  - reflexivity.
  - cbv zeta. destruct (find_node (sv_tree sv) (pp ++ [k])) as [n|].
    + destruct rest as [|k2 rest2].
      * destruct dov; [reflexivity|]. destruct q; [reflexivity|]. rewrite ids_notify_changed. reflexivity.
      * apply IH.
    + destruct dc; [reflexivity|]. outer_if; [reflexivity|].
      destruct rest as [|k2 rest2].
      * destruct q; [reflexivity|]. rewrite ids_notify_changed. reflexivity.
      * rewrite IH. destruct q; [reflexivity|]. rewrite ids_notify_changed. reflexivity.
Qed.

Lemma ids_set_data_node : forall sv ss rel d flags, ids (set_data_node sv ss rel d flags) = ids sv.
Proof. intros. unfold set_data_node. apply ids_set_data_loop. Qed.

Lemma ids_remove_subtree : forall sv by_ p notify, ids (remove_subtree sv by_ p notify) = ids sv.
Proof.
  intros sv by_ p notify. unfold remove_subtree. apply fold_left_ids.
  intros acc q. destruct (find_node (sv_tree acc) q) as [n|]; [|reflexivity].
  rewrite ids_set_tree. destruct notify; [apply ids_notify_changed|reflexivity].
Qed.

Variable fx : fixes.

Lemma ids_do_remove_data : forall sv ss keys quiet, ids (do_remove_data fx sv ss keys quiet) = ids sv.
Proof.
  intros sv ss keys quiet. unfold do_remove_data. apply fold_left_ids.
  intros acc p. outer_if; [apply ids_remove_subtree|reflexivity].
Qed.

Lemma ids_do_get_data : forall sv s keys, ids (do_get_data fx sv s keys) = ids sv.
Proof. intros. apply frame_ids, same_core_frame, do_get_data_core. Qed.

Lemma frame_cqf_cb : forall s oldf newf sv n, frame (cqf_cb fx s oldf newf sv n) = frame sv.
Proof. intros. apply same_core_frame, cqf_cb_core. Qed.

Lemma ids_subscribe_one : forall sv s sf, ids (subscribe_one fx sv s sf) = ids sv.
Proof.
  intros sv s sf. unfold subscribe_one. cbv zeta.
  destruct (get_session sv s) as [ss|]; [|reflexivity].
  destruct (fix_path (fst sf)) as [|c0 fp]; [reflexivity|].
  destruct (m_get (s_subs ss) (c0 :: fp)) as [e|].
  - rewrite ids_upd_session by (intros; reflexivity).
    destruct (snd sf), (e_flt e); try reflexivity; apply frame_ids, same_core_frame, cqf_traversal_core.
  - rewrite ids_set_tree. rewrite ids_upd_session by (intros; reflexivity). reflexivity.
Qed.

Lemma ids_unsubscribe_one : forall sv s sp, ids (unsubscribe_one fx sv s sp) = ids sv.
Proof.
  intros sv s sp. unfold unsubscribe_one. cbv zeta.
  destruct (get_session sv s) as [ss|]; [|reflexivity].
  destruct (m_remove (s_subs ss) (fix_path sp)) as [m'|]; [|reflexivity].
  rewrite ids_set_tree. rewrite ids_upd_session by (intros; reflexivity). reflexivity.
Qed.

(* every command of every session leaves the set of attached sessions alone *)
Lemma ids_handle : forall c nest sv s, ids (handle fx nest sv s c) = ids sv.
Proof.
  induction c as [flags items|quiet keys|quiet subs|subs|n| |keys|l IHl] using cmd_ind'; intros nest sv s;
    cbn [handle]; destruct (get_session sv s) as [ss|]; try reflexivity.
  - apply fold_left_ids. intros acc it. destruct (get_session acc s) as [ss'|]; [|reflexivity].
    destruct (fst it); [reflexivity|apply ids_set_data_node].
  - apply ids_do_remove_data.
  - assert (Hs : ids (fold_left (fun sv' sf => subscribe_one fx sv' s sf) subs sv) = ids sv).
    { apply fold_left_ids. intros acc sf. apply ids_subscribe_one. }
    destruct quiet; [exact Hs|]. destruct subs as [|sf0 subs']; [exact Hs|].
    rewrite ids_do_get_data. destruct (fx_push fx); [rewrite ids_push_all|]; exact Hs.
  - apply fold_left_ids. intros acc sp. apply ids_unsubscribe_one.
  - apply ids_upd_session. intros; reflexivity.
  - apply ids_upd_session. intros; reflexivity.
  - apply ids_do_get_data.
  - destruct (Nat.ltb nest max_batch_nest); [|reflexivity].
    revert sv. induction IHl as [|c' r Hc' _ IHr]; intros sv.
    + reflexivity.
    + rewrite IHr. rewrite ids_push_all. apply Hc'.
Qed.

Lemma ids_new_session : forall sv s host nm, ids (attach sv s host nm) = ids sv ++ [s].
Proof.
  intros sv s host nm. unfold attach. cbv zeta.
  rewrite ids_push_all, ids_notify_changed, ids_set_tree.
  outer_if.
  - unfold ids. cbn [sv_sessions]. rewrite map_app. reflexivity.
  - rewrite ids_notify_changed, ids_set_tree. unfold ids. cbn [sv_sessions]. rewrite map_app. reflexivity.
Qed.

Lemma map_filter_ids : forall (l : list session) (s : sid),
  map s_id (filter (fun x => negb (N.eqb (s_id x) s)) l) = filter (fun k => negb (N.eqb k s)) (map s_id l).
Proof.
  induction l as [|x l IH]; intros s; cbn [filter map].
  - reflexivity.
  - destruct (N.eqb (s_id x) s); cbn [negb map]; [apply IH|rewrite IH; reflexivity].
Qed.

Lemma ids_detach : forall sv s, ids (detach fx sv s) = filter (fun k => negb (N.eqb k s)) (ids sv).
Proof.
  intros sv s. unfold detach.
  destruct (get_session sv s) as [ss|] eqn:Hs.
  - cbv zeta.
    match goal with |- context [filter _ (sv_sessions ?sv3)] => assert (H3 : ids sv3 = ids sv) end.
    { outer_if; [|reflexivity]. rewrite ids_push_all.
      outer_if; [|rewrite ids_remove_subtree]; (outer_if; [apply ids_remove_subtree|reflexivity]). }
    unfold ids in *. cbn [sv_sessions]. rewrite <- H3.
    apply map_filter_ids.
  - (* s is not attached: nothing happens, and s is not among the ids *)
    assert (Hn : ~ In s (ids sv)).
    { intros Hk. apply get_session_ids in Hk. destruct Hk as [ss Hss]. rewrite Hss in Hs. discriminate. }
    revert Hn. generalize (ids sv). induction l as [|k l IH]; intros Hn; cbn [filter].
    + reflexivity.
    + destruct (N.eqb k s) eqn:E; cbn [negb].
      * apply N.eqb_eq in E. subst k. exfalso. apply Hn. left. reflexivity.
      * rewrite <- IH; [reflexivity|]. intros Hk. apply Hn. right. exact Hk.
Qed.

End Ids.
