(* Refl/DispatchProofs.v -- C07: the dispatch is a function of the what-code alone; every case label lies in the command
   range, is distinct from the others and therefore reaches its handler; every what-code of the range lands in a handler
   whose loops are modelled, except three named commands.  The side conditions on the table of labels are computed on the
   regenerated constants.  Defines [unmodelled_commands], the three named commands. *)
From Coq Require Import List NArith Bool Arith Lia.
From Muscle Require Import Gen.Consts Refl.Dispatch.
Import ListNotations.
Local Open Scope N_scope.

Lemma case_labels_distinct : NoDup (map fst case_labels).
Proof.
  assert (H : nodup N.eq_dec (map fst case_labels) = map fst case_labels) by (vm_compute; reflexivity).
  rewrite <- H. apply NoDup_nodup.
Qed.

Lemma case_labels_in_range : forall k h, In (k, h) case_labels -> in_command_range k = true.
Proof.
  assert (H : forallb (fun kh => in_command_range (fst kh)) case_labels = true) by (vm_compute; reflexivity).
  intros k h Hin. rewrite forallb_forall in H. exact (H (k, h) Hin).
Qed.

(* a switch with distinct labels reaches the handler written next to the label *)
Lemma lookup_label_nodup : forall l k h, NoDup (map fst l) -> In (k, h) l -> lookup_label l k = h.
Proof.
  induction l as [|[k0 h0] l IH]; intros k h Hnd Hin; [contradiction|]. cbn [lookup_label map fst] in *.
  inversion Hnd as [|? ? Hn Hd]; subst. destruct Hin as [Heq|Hin].
  - inversion Heq; subst. rewrite N.eqb_refl. reflexivity.
  - destruct (N.eqb k0 k) eqn:E; [|exact (IH k h Hd Hin)].
    apply N.eqb_eq in E. subst k0. exfalso. apply Hn. exact (in_map fst l (k, h) Hin).
Qed.

Lemma lookup_label_in : forall l what, lookup_label l what = HDefault \/ In (what, lookup_label l what) l.
Proof.
  induction l as [|[k h] l IH]; intros what; cbn [lookup_label]; [left; reflexivity|].
  destruct (N.eqb k what) eqn:E.
  - apply N.eqb_eq in E. subst k. right. left. reflexivity.
  - destruct (IH what) as [H|H]; [left; exact H|right; right; exact H].
Qed.

Lemma case_labels_reached : forall k h, In (k, h) case_labels -> dispatch k = h.
Proof.
  intros k h Hin. unfold dispatch. rewrite (case_labels_in_range k h Hin).
  apply lookup_label_nodup; [apply case_labels_distinct|exact Hin].
Qed.

Definition unmodelled_commands : list N :=
  [c_PR_COMMAND_GETPARAMETERS; c_PR_COMMAND_INSERTORDEREDDATA; c_PR_COMMAND_REORDERDATA].

(* every what-code of the command range reaches a handler whose loops are modelled (Refl/Bounded.v, Refl/Server.v), or is
   one of PR_COMMAND_GETPARAMETERS, INSERTORDEREDDATA, REORDERDATA: a code without a case label is bounced (modelled), and
   the labels of unmodelled handlers are those three (computed on the table) *)
Lemma dispatch_range_modelled : forall what,
  in_command_range what = true -> modelled (dispatch what) = true \/ In what unmodelled_commands.
Proof.
  intros what Hr. unfold dispatch. rewrite Hr.
  destruct (lookup_label_in case_labels what) as [->|Hin]; [left; reflexivity|].
  assert (H : forallb (fun kh => modelled (snd kh) || existsb (N.eqb (fst kh)) unmodelled_commands) case_labels = true)
    by (vm_compute; reflexivity).
  rewrite forallb_forall in H. specialize (H _ Hin). cbn [fst snd] in H.
  apply orb_true_iff in H. destruct H as [H|H]; [left; exact H|right].
  apply existsb_exists in H. destruct H as [x [Hx Heq]]. apply N.eqb_eq in Heq. subst x. exact Hx.
Qed.

Lemma dispatch_outside : forall what, in_command_range what = false -> dispatch what = HClientToClient.
Proof. intros what H. unfold dispatch. rewrite H. reflexivity. Qed.
