(* Refl/MirrorSubscribe.v -- the subscriber's own PR_COMMAND_SETPARAMETERS: filter changes of existing
   subscriptions (ChangeQueryFilterCallback with the F37 repair), new subscriptions, the flush (F38 repair) and
   the initial-values GETDATA (DoGetData read through the asker's virtual mirror; GetDataCallback answers
   NODE_DEPTH_SESSIONNAME on the session's own nodes: trav_fold with that region), which together re-establish its
   invariant J; and its explicit PR_COMMAND_GETDATA for subscriptions it holds, which leaves J alone. *)
From Coq Require Import List NArith ZArith Bool Arith Lia.
From Muscle Require Import Refl.Base Refl.BaseProofs Refl.Tree Refl.TreeProofs Refl.Matcher Refl.MatcherProofs
     Refl.Traverse Refl.TraverseFold Refl.TraverseSpec Refl.Session Refl.Server Refl.ServerProofs Refl.Mirror
     Refl.MirrorBase Refl.MirrorServer Refl.MirrorSem Refl.MirrorSteps Refl.MirrorHandlers Refl.MirrorFrame.
Import ListNotations.

Section Sub.
Context {M : MatchOps} {L : MatchLaws M}.
Variable fx : fixes.
Hypothesis guard_on : fx_guard fx = true.
Hypothesis overlap_on : fx_overlap fx = true.
Variable mir : mirror.
Variable s : sid.                (* the subscriber *)

Notation J := (J mir).
Notation V := (V mir).

(* whether the callback announces the node: the filter verdict flips and no other subscription accepts the node *)
Definition cqf_decide (subs : matcher) (oldf newf : option qfilter) (n : node) : bool :=
  let d := Some (n_data n) in
  negb (Bool.eqb (filter_ok oldf d) (filter_ok newf d))
  && N.leb (match_count subs (n_path n) d 0) (if filter_ok oldf d then 1 else 0).

Lemma V_cqf : forall sv ss oldf newf n q, pend_ok sv -> get_session sv s = Some ss ->
  V (cqf_cb fx s oldf newf sv n) s q
  = if path_eqb (n_path n) q && cqf_decide (s_subs ss) oldf newf n
    then Some (if filter_ok oldf (Some (n_data n)) then None else Some (n_data n))
    else V sv s q.
Proof.
  intros sv ss oldf newf n q Hpo Hss. unfold cqf_cb, cqf_decide. rewrite Hss, overlap_on. cbn [andb].
  destruct (Bool.eqb (filter_ok oldf (Some (n_data n))) (filter_ok newf (Some (n_data n)))) eqn:E; cbn [negb andb].
  - now rewrite andb_false_r.
  - destruct (N.leb (match_count (s_subs ss) (n_path n) (Some (n_data n)) 0)
                    (if filter_ok oldf (Some (n_data n)) then 1 else 0)) eqn:El; cbn [negb].
    + rewrite (V_nca mir sv s (n_path n) (n_data n) _ s q Hpo) by eauto.
      rewrite N.eqb_refl, Hss. cbn [andb option_map]. rewrite andb_true_r.
      destruct (path_eqb (n_path n) q); reflexivity.
    + now rewrite andb_false_r.
Qed.

Lemma cqf_fold : forall oldf newf (l : list node) sv ss,
  NoDup (map n_path l) -> pend_ok sv -> get_session sv s = Some ss ->
  let sv' := fold_left (cqf_cb fx s oldf newf) l sv in
  pend_ok sv' /\ same_core sv sv'
  /\ forall q, V sv' s q
       = match find (fun n => path_eqb (n_path n) q) l with
         | Some n => if cqf_decide (s_subs ss) oldf newf n
                     then Some (if filter_ok oldf (Some (n_data n)) then None else Some (n_data n))
                     else V sv s q
         | None => V sv s q
         end.
Proof.
  intros oldf newf. induction l as [|n l IH]; intros sv ss Hnd Hpo Hss; cbn [fold_left].
  - split; [auto|split; [apply same_core_refl|]]. intros q. reflexivity.
  - cbn in Hnd. inversion Hnd as [|? ? Hn Hnd']; subst.
    set (sv1 := cqf_cb fx s oldf newf sv n).
    assert (Hc1 : same_core sv sv1) by apply cqf_cb_core.
    assert (Hpo1 : pend_ok sv1) by (now apply pend_ok_cqf).
    destruct (get_session_core_some sv sv1 s ss Hc1 Hss) as [ss1 [Hss1 Hsub1]].
    destruct (IH sv1 ss1 Hnd' Hpo1 Hss1) as [H1 [H2 H3]].
    split; [auto|split; [eapply same_core_trans; eauto|]].
    intros q. rewrite H3, Hsub1. cbn [find].
    unfold sv1. rewrite (V_cqf sv ss oldf newf n q Hpo Hss).
    destruct (path_eqb (n_path n) q) eqn:E; cbn [andb].
    + apply path_eqb_eq in E. subst q.
      assert (find (fun n0 => path_eqb (n_path n0) (n_path n)) l = None) as ->.
      { destruct (find (fun n0 => path_eqb (n_path n0) (n_path n)) l) as [x|] eqn:Ef; auto.
        apply find_some in Ef as [Hx1 Hx2]. apply path_eqb_eq in Hx2. exfalso. apply Hn. rewrite <- Hx2. now apply in_map. }
      reflexivity.
    + reflexivity.
Qed.

(* T = the subscription paths this Message has dealt with so far.  While the loop runs, the virtual mirror
   (K1) holds nothing the current subscriptions do not select, and (K2) holds every node selected by a
   subscription the Message has not touched. *)
Definition K (sv : server) (T : list pat) : Prop :=
  forall ss, get_session sv s = Some ss -> forall q, own_node ss q = false ->
    (exp_with (s_subs ss) q (data_at (sv_tree sv) q) = None -> V sv s q = Some None)
    /\ (forall e v, In e (all_entries (s_subs ss)) -> ~ In (e_pat e) T ->
                    data_at (sv_tree sv) q = Some v -> ematch e q v = true -> V sv s q = Some (Some v)).

Lemma exp_with_some : forall m q v, wf_groups (m_groups m) ->
  (exp_with m q (Some v) = Some v <-> exists e, In e (all_entries m) /\ ematch e q v = true).
Proof.
  intros m q v Hw. unfold exp_with. destruct (matches_path m q (Some v)) eqn:E.
  - apply matches_path_ematch in E; auto. split; auto.
  - split; [discriminate|]. intros H. apply matches_path_ematch in H; auto. congruence.
Qed.

Lemma exp_with_none : forall m q v, wf_groups (m_groups m) ->
  (exp_with m q (Some v) = None <-> forall e, In e (all_entries m) -> ematch e q v = false).
Proof.
  intros m q v Hw. unfold exp_with. destruct (matches_path m q (Some v)) eqn:E.
  - apply matches_path_ematch in E as [e [H1 H2]]; auto. split; [discriminate|]. intros H. rewrite (H e H1) in H2. discriminate.
  - split; auto. intros _ e He. destruct (ematch e q v) eqn:Em; auto.
    assert (matches_path m q (Some v) = true) by (apply matches_path_ematch; eauto). congruence.
Qed.

Lemma J_K : forall sv, marks_ok sv -> J sv s -> K sv [].
Proof.
  intros sv Hmk HJ ss Hss q Hown.
  assert (Hin : In ss (sv_sessions sv)) by (apply find_session_some in Hss; tauto).
  pose proof (proj1 (proj2 Hmk ss Hin)) as Hw.
  rewrite (HJ ss Hss q Hown), expected_exp_with. fold (data_at (sv_tree sv) q). split.
  - intros H. now rewrite H.
  - intros e v He _ Hd Hm. rewrite Hd. f_equal. apply exp_with_some; eauto.
Qed.

Lemma vlist_single : forall t fp n, wf_tree t -> fp <> [] ->
  (In n (vlist t (single fp) [] false) <-> In n t /\ pat_matches fp (n_path n) = true).
Proof.
  intros t fp n Ht Hfp. rewrite vlist_spec by (auto; unfold single; now apply single_wf).
  cbn [length app]. unfold dsel, single. rewrite single_matches by auto. split.
  - intros [H1 [_ H3]]. auto.
  - intros [H1 H3]. split; [auto|split; [|auto]]. exists (n_path n). split; auto.
    destruct Ht as [_ [Hne _]]. now apply Hne.
Qed.

Lemma vlist_paths_nodup : forall t m root uf, wf_tree t -> wf_groups (m_groups m) ->
  NoDup (map n_path (vlist t m root uf)).
Proof.
  intros t m root uf Ht Hm. apply NoDup_map_in; [|now apply vlist_nodup].
  intros x y Hx Hy E. apply vlist_spec in Hx as [Hx _]; auto. apply vlist_spec in Hy as [Hy _]; auto.
  destruct Ht as [Hnd _]. now apply (node_eq_by_path t).
Qed.

Lemma find_by_path : forall (l : list node) q n, find (fun n => path_eqb (n_path n) q) l = Some n -> In n l /\ n_path n = q.
Proof. intros l q n H. apply find_some in H as [H1 H2]. apply path_eqb_eq in H2. auto. Qed.

Lemma find_by_path_none : forall (l : list node) q, find (fun n => path_eqb (n_path n) q) l = None ->
  forall n, In n l -> n_path n <> q.
Proof.
  intros l q H n Hn E. pose proof (find_none _ _ H n Hn) as H1. cbn in H1. rewrite E, path_eqb_refl in H1. discriminate.
Qed.

Lemma filter_len1 : forall (A : Type) (f : A -> bool) (l : list A) a b,
  length (filter f l) <= 1 -> In a l -> f a = true -> In b l -> f b = true -> a = b.
Proof.
  intros A f l a b Hlen Ha Hfa Hb Hfb.
  assert (Ha' : In a (filter f l)) by (apply filter_In; auto).
  assert (Hb' : In b (filter f l)) by (apply filter_In; auto).
  destruct (filter f l) as [|x [|y r]]; [contradiction| |cbn in Hlen; lia].
  destruct Ha' as [Ha'|[]], Hb' as [Hb'|[]]. congruence.
Qed.

(* the callback announces a node its path matches iff the verdict of the changed entry flips and no other entry
   accepts the node *)
Lemma cqf_decide_spec : forall E fp e newf n, wf_groups (m_groups E) -> m_get E fp = Some e ->
  pat_matches fp (n_path n) = true ->
  cqf_decide E (e_flt e) newf n = true <->
  filter_ok (e_flt e) (Some (n_data n)) <> filter_ok newf (Some (n_data n))
  /\ forall x, In x (all_entries E) -> e_pat x <> fp -> ematch x (n_path n) (n_data n) = false.
Proof.
  intros E fp e newf n Hw Hget Hpm. destruct (m_get_some _ _ _ Hget) as [He Hep].
  unfold cqf_decide. rewrite (match_count_data_spec E (n_path n) (n_data n) Hw).
  set (f := fun e0 => ematch e0 (n_path n) (n_data n)).
  assert (Hme : f e = filter_ok (e_flt e) (Some (n_data n))) by (unfold f, ematch; now rewrite Hep, Hpm).
  rewrite andb_true_iff, negb_true_iff, eqb_false_iff, N.leb_le. split; intros [Hflip H]; (split; [exact Hflip|]).
  - intros x Hx Hp. destruct (f x) eqn:Ex; [exfalso|exact Ex].
    destruct (filter_ok (e_flt e) (Some (n_data n))).
    + apply Hp. rewrite <- Hep. f_equal. apply (filter_len1 _ f (all_entries E)); auto; lia.
    + assert (Hin : In x (filter f (all_entries E))) by (apply filter_In; auto).
      destruct (filter f (all_entries E)); [contradiction|cbn in H; lia].
  - destruct (filter_ok (e_flt e) (Some (n_data n))) eqn:Eold.
    + destruct (le_dec (length (filter f (all_entries E))) 1) as [Hl|Hl]; [lia|].
      destruct (other_match E f fp Hw Hl) as [x [Hx [Hfx Hp]]]. unfold f in Hfx. rewrite (H x Hx Hp) in Hfx. discriminate.
    + destruct (filter f (all_entries E)) as [|x r] eqn:Ef; [cbn; lia|].
      assert (Hx : In x (filter f (all_entries E))) by (rewrite Ef; now left). apply filter_In in Hx as [Hx Hfx].
      destruct (pat_eqb (e_pat x) fp) eqn:Ep.
      * apply pat_eqb_eq in Ep. assert (x = e) by (apply (entries_unique E); auto; congruence). subst x. congruence.
      * apply pat_eqb_neq in Ep. unfold f in Hfx. rewrite (H x Hx Ep) in Hfx. discriminate.
Qed.

Lemma K_change : forall B sv ss T fp newf e,
  inv B sv -> pend_ok sv -> get_session sv s = Some ss -> m_get (s_subs ss) fp = Some e -> fp <> [] ->
  ~ In fp T -> K sv T ->
  let sv1 := match newf, e_flt e with
             | None, None => sv
             | _, _ => do_traversal (continue_cb (cqf_cb fx s (e_flt e) newf)) (sv_tree sv) (single fp) [] false (fx_guard fx) sv
             end in
  let sv' := upd_session sv1 s (fun x => set_subs x (m_set_filter (s_subs x) fp newf)) in
  K sv' (fp :: T) /\ pend_ok sv'.
Proof.
  intros B sv ss T fp newf e I Hpo Hss Hget Hfp HnT HK sv1 sv'.
  pose proof (inv_tree _ _ _ I) as Ht.
  pose proof (session_wf _ _ _ _ _ I Hss) as Hw.
  destruct (m_get_some _ _ _ Hget) as [He Hep].
  set (Vl := vlist (sv_tree sv) (single fp) [] false).
  assert (Hnd : NoDup (map n_path Vl)) by (apply vlist_paths_nodup; auto; unfold single; now apply single_wf).
  (* what the traversal (if any) does to the virtual mirror *)
  assert (H1 : pend_ok sv1 /\ same_core sv sv1
               /\ forall q, V sv1 s q
                    = match find (fun n => path_eqb (n_path n) q) Vl with
                      | Some n => if cqf_decide (s_subs ss) (e_flt e) newf n
                                  then Some (if filter_ok (e_flt e) (Some (n_data n)) then None else Some (n_data n))
                                  else V sv s q
                      | None => V sv s q
                      end).
  { assert (Htrav : let svt := do_traversal (continue_cb (cqf_cb fx s (e_flt e) newf)) (sv_tree sv) (single fp) [] false (fx_guard fx) sv in
              pend_ok svt /\ same_core sv svt
              /\ forall q, V svt s q
                   = match find (fun n => path_eqb (n_path n) q) Vl with
                     | Some n => if cqf_decide (s_subs ss) (e_flt e) newf n
                                 then Some (if filter_ok (e_flt e) (Some (n_data n)) then None else Some (n_data n))
                                 else V sv s q
                     | None => V sv s q
                     end).
    { cbv zeta. rewrite guard_on, do_traversal_continue. now apply cqf_fold. }
    unfold sv1. destruct newf as [nf|], (e_flt e) as [of|] eqn:Eof; try exact Htrav.
    split; [auto|split; [apply same_core_refl|]]. intros q.
    destruct (find (fun n => path_eqb (n_path n) q) Vl); auto. }
  destruct H1 as [Hpo1 [Hc1 HV1]].
  destruct (get_session_core_some sv sv1 s ss Hc1 Hss) as [ss1 [Hss1 Hsub1]].
  split; [|apply pend_ok_upd_keep; [reflexivity|exact Hpo1]].
  (* the invariant afterwards *)
  intros ss' Hss' q Hown.
  unfold sv' in Hss'. rewrite get_session_upd in Hss' by reflexivity. rewrite N.eqb_refl, Hss1 in Hss'.
  cbn [option_map] in Hss'. inversion Hss'; subst ss'. clear Hss'.
  cbn [set_subs s_subs]. rewrite Hsub1.
  assert (Hown0 : own_node ss q = false).
  { destruct (get_session_sess sv sv1 s ss1 (same_core_sess _ _ Hc1) Hss1) as [ss0 [Hss0 [_ Hdir]]].
    assert (ss0 = ss) by congruence. subst ss0.
    rewrite (own_node_dir ss ss1 q Hdir). exact Hown. }
  destruct (HK ss Hss q Hown0) as [K1 K2].
  assert (HVq : V sv' s q = V sv1 s q) by (unfold sv'; apply V_upd_keep; intros x; auto).
  rewrite HVq, HV1.
  assert (Htree : sv_tree sv' = sv_tree sv) by (unfold sv'; cbn [sv_tree upd_session]; now destruct Hc1).
  rewrite Htree.
  set (E := s_subs ss) in *. set (E' := m_set_filter E fp newf).
  assert (Hw' : wf_groups (m_groups E')) by (now apply wf_set_filter).
  assert (HE' : forall x, In x (all_entries E') <-> x = mkEntry fp newf \/ (In x (all_entries E) /\ e_pat x <> fp))
    by (intros x; now apply (all_entries_set_filter E fp newf e)).
  assert (Hkeep : forall x, In x (all_entries E) -> e_pat x <> fp -> In x (all_entries E')) by (intros x H1 H2; apply HE'; auto).
  assert (Hold : forall x, In x (all_entries E') -> e_pat x <> fp -> In x (all_entries E)).
  { intros x H1 H2. apply HE' in H1 as [H1|[H1 _]]; auto. subst x. cbn in H2. congruence. }
  assert (Heq : forall x, In x (all_entries E) -> e_pat x = fp -> x = e) by (intros x H1 H2; apply (entries_unique E); auto; congruence).
  (* K2 for an entry the Message has still not touched is inherited *)
  assert (K2' : forall x v, In x (all_entries E') -> ~ In (e_pat x) (fp :: T) ->
                  data_at (sv_tree sv) q = Some v -> ematch x q v = true -> V sv s q = Some (Some v)).
  { intros x v Hx HnT' Hd Hm. apply (K2 x v); auto.
    - apply Hold; auto. intros Ep. apply HnT'. now left.
    - intros HT. apply HnT'. now right. }
  destruct (data_at (sv_tree sv) q) as [v|] eqn:Hdq.
  2:{ (* no node at q *)
    assert (find (fun n => path_eqb (n_path n) q) Vl = None) as ->.
    { destruct (find (fun n => path_eqb (n_path n) q) Vl) as [n0|] eqn:Ef; auto.
      apply find_by_path in Ef as [Hn0 Hp0]. apply vlist_single in Hn0 as [Hn0 _]; auto.
      unfold data_at in Hdq. rewrite <- Hp0, (find_node_in _ _ (proj1 Ht) Hn0) in Hdq. discriminate. }
    split; [intros _; now apply K1|]. intros x v _ _ Hd. discriminate. }
  unfold data_at in Hdq. destruct (find_node (sv_tree sv) q) as [nq|] eqn:Hfq; [|discriminate].
  cbn in Hdq. inversion Hdq; subst v. clear Hdq.
  pose proof (find_node_some _ _ _ Hfq) as [Hnq Hpq].
  destruct (pat_matches fp q) eqn:Epm.
  2:{ (* the path does not match the subscription being changed: nothing was said about q *)
    assert (find (fun n => path_eqb (n_path n) q) Vl = None) as ->.
    { destruct (find (fun n => path_eqb (n_path n) q) Vl) as [n0|] eqn:Ef; auto.
      apply find_by_path in Ef as [Hn0 Hp0]. apply vlist_single in Hn0 as [_ Hn0]; auto. rewrite Hp0 in Hn0. congruence. }
    split; [|intros x v Hx HnT' Hd Hm; inversion Hd; subst v; apply (K2' x (n_data nq)); auto].
    intros Hexp. apply K1. rewrite exp_with_none in Hexp |- * by auto.
    intros x Hx. destruct (pat_eqb (e_pat x) fp) eqn:Ep.
    - apply pat_eqb_eq in Ep. unfold ematch. now rewrite Ep, Epm.
    - apply pat_eqb_neq in Ep. apply Hexp. now apply Hkeep. }
  (* the path matches the subscription being changed: the traversal visited the node *)
  assert (HinVl : In nq Vl) by (apply vlist_single; auto; now rewrite Hpq).
  destruct (find (fun n => path_eqb (n_path n) q) Vl) as [n0|] eqn:Ef;
    [|exfalso; apply (find_by_path_none Vl q Ef nq HinVl Hpq)].
  apply find_by_path in Ef as [Hn0 Hp0].
  assert (n0 = nq).
  { apply vlist_single in Hn0 as [Hn0 _]; auto. destruct Ht as [Hndt _]. apply (node_eq_by_path (sv_tree sv)); auto. congruence. }
  subst n0.
  assert (Hme : ematch e q (n_data nq) = filter_ok (e_flt e) (Some (n_data nq))) by (unfold ematch; now rewrite Hep, Epm).
  assert (Hme' : ematch (mkEntry fp newf) q (n_data nq) = filter_ok newf (Some (n_data nq))).
  { unfold ematch. cbn [e_pat e_flt]. now rewrite Epm. }
  assert (Hnew : In (mkEntry fp newf) (all_entries E')) by (apply HE'; now left).
  rewrite <- Hpq in Epm. fold E.
  destruct (cqf_decide E (e_flt e) newf nq) eqn:Edec.
  - (* announced: the verdict flips and no other entry accepts the node *)
    apply (cqf_decide_spec E fp e newf nq Hw Hget Epm) in Edec as [Hflip Hno]. rewrite Hpq in Hno. split.
    + intros Hexp. rewrite exp_with_none in Hexp by auto. rewrite (Hexp _ Hnew) in Hme'. rewrite <- Hme' in Hflip.
      now destruct (filter_ok (e_flt e) (Some (n_data nq))).
    + intros x v Hx HnT' Hd Hm. inversion Hd; subst v. exfalso.
      assert (Hxp : e_pat x <> fp) by (intros Ep; apply HnT'; now left).
      rewrite (Hno x (Hold x Hx Hxp) Hxp) in Hm. discriminate.
  - (* not announced *)
    split; [|intros x v Hx HnT' Hd Hm; inversion Hd; subst v; apply (K2' x (n_data nq)); auto].
    intros Hexp. apply K1. rewrite exp_with_none in Hexp |- * by auto.
    intros x Hx. destruct (pat_eqb (e_pat x) fp) eqn:Ep; [|apply pat_eqb_neq in Ep; apply Hexp; now apply Hkeep].
    apply pat_eqb_eq in Ep. rewrite (Heq x Hx Ep), Hme.
    (* were the old verdict "accepted", the callback would have announced the node *)
    destruct (filter_ok (e_flt e) (Some (n_data nq))) eqn:Eold; [exfalso|reflexivity].
    assert (cqf_decide E (e_flt e) newf nq = true); [|congruence].
    apply (cqf_decide_spec E fp e newf nq Hw Hget Epm). rewrite Hpq, Eold, <- Hme', (Hexp _ Hnew). split; [discriminate|].
    intros y Hy Hyp. apply Hexp. now apply Hkeep.
Qed.

Lemma K_new : forall B sv ss T fp f,
  inv B sv -> get_session sv s = Some ss -> m_get (s_subs ss) fp = None -> fp <> [] -> K sv T ->
  let sv1 := upd_session sv s (fun x => set_subs x (m_put (s_subs x) fp f)) in
  let sv' := set_tree sv1 (mark_nodes fx (sv_tree sv1) (single fp) s 1) in
  K sv' (fp :: T).
Proof.
  intros B sv ss T fp f I Hss Hget Hfp HK sv1 sv'.
  pose proof (session_wf _ _ _ _ _ I Hss) as Hw.
  intros ss' Hss' q Hown.
  unfold sv', sv1 in Hss'.
  change (get_session (upd_session sv s (fun x => set_subs x (m_put (s_subs x) fp f))) s = Some ss') in Hss'.
  rewrite get_session_upd in Hss' by reflexivity. rewrite N.eqb_refl, Hss in Hss'. cbn [option_map] in Hss'.
  inversion Hss'; subst ss'. clear Hss'. cbn [set_subs s_subs].
  assert (Hown0 : own_node ss q = false) by exact Hown.
  destruct (HK ss Hss q Hown0) as [K1 K2].
  assert (HVq : V sv' s q = V sv s q).
  { unfold sv', sv1. rewrite V_set_tree. apply V_upd_keep. intros x; auto. }
  assert (Hdq : data_at (sv_tree sv') q = data_at (sv_tree sv) q).
  { unfold sv', sv1. cbn [sv_tree set_tree upd_session]. apply data_at_mark_gen. }
  rewrite HVq, Hdq.
  set (E := s_subs ss) in *. set (E' := m_put E fp f).
  assert (Hw' : wf_groups (m_groups E')) by (now apply wf_put).
  assert (HE' : forall x, In x (all_entries E') <-> x = mkEntry fp f \/ (In x (all_entries E) /\ e_pat x <> fp))
    by (intros x; now apply all_entries_put).
  split.
  - intros Hexp. apply K1. destruct (data_at (sv_tree sv) q) as [v|]; [|reflexivity].
    rewrite exp_with_none in Hexp |- * by auto. intros x Hx. apply Hexp. apply HE'. right. split; auto.
    now apply (m_get_none E fp Hw Hget).
  - intros x v Hx HnT' Hd Hm. apply (K2 x v); auto.
    + apply HE' in Hx as [Hx|[Hx _]]; auto. subst x. exfalso. apply HnT'. now left.
    + intros HT. apply HnT'. now right.
Qed.

Definition fixed (subs : list (spath * option qfilter)) : list pat := map (fun sf => fix_path (fst sf)) subs.

(* the SUBSCRIBE: fields of one Message, filed one after the other (distinct non-empty paths): each is in the table
   at the end, and so is what was there under another path *)
Lemma put_fold_keeps : forall subs m x, wf_groups (m_groups m) -> (forall p, In p (fixed subs) -> p <> []) ->
  In x (all_entries m) -> ~ In (e_pat x) (fixed subs) ->
  In x (all_entries (fold_left (fun m' sf => m_put m' (fix_path (fst sf)) (snd sf)) subs m)).
Proof.
  induction subs as [|sf subs IH]; intros m x Hw Hne Hx Hn; cbn [fold_left]; auto.
  apply IH; [now apply wf_put|intros p Hp; apply Hne; now right| |intros H; apply Hn; now right].
  apply all_entries_put; auto; [apply Hne; now left|]. right. split; auto. intros E. apply Hn. now left.
Qed.

Lemma put_fold_in : forall subs m sf, wf_groups (m_groups m) -> NoDup (fixed subs) -> (forall p, In p (fixed subs) -> p <> []) ->
  In sf subs ->
  In (mkEntry (fix_path (fst sf)) (snd sf)) (all_entries (fold_left (fun m' sf => m_put m' (fix_path (fst sf)) (snd sf)) subs m)).
Proof.
  induction subs as [|a subs IH]; intros m sf Hw Hnd Hne Hin; [destruct Hin|]. cbn [fold_left].
  cbn [fixed map] in Hnd. inversion Hnd as [|? ? Ha Hnd']; subst.
  assert (Hne' : forall p, In p (fixed subs) -> p <> []) by (intros p Hp; apply Hne; now right).
  destruct Hin as [E|Hin]; [subst a|apply IH; auto; now apply wf_put].
  apply put_fold_keeps; [now apply wf_put|exact Hne'| |exact Ha].
  apply all_entries_put; auto. apply Hne. now left.
Qed.

Lemma subscribe_loop_K : forall subs B sv T, small (B + length subs) ->
  inv B sv -> pend_ok sv -> (exists ss, get_session sv s = Some ss) ->
  NoDup (fixed subs) -> (forall p, In p (fixed subs) -> p <> [] /\ ~ In p T) -> K sv T ->
  let sv' := fold_left (fun sv' sf => subscribe_one fx sv' s sf) subs sv in
  K sv' (rev (fixed subs) ++ T) /\ pend_ok sv' /\ inv (B + length subs) sv'.
Proof.
  induction subs as [|[sp f] subs IH]; intros B sv T HB I Hpo [ss Hss] Hnd Hok HK; cbn [fold_left fixed map length rev].
  - rewrite Nat.add_0_r. auto.
  - cbn [fixed map] in Hnd, Hok. inversion Hnd as [|? ? Hfp Hnd']; subst.
    destruct (Hok (fix_path sp) (or_introl eq_refl)) as [Hne HnT].
    set (sv1 := subscribe_one fx sv s (sp, f)).
    assert (I1 : inv (S B) sv1).
    { apply subscribe_one_inv; auto. eapply small_le; [|exact HB]. cbn [length]. lia. }
    assert (HK1 : K sv1 (fix_path sp :: T)).
    { unfold sv1, subscribe_one. cbn [fst snd]. rewrite Hss.
      destruct (fix_path sp) as [|c fp'] eqn:Efp; [congruence|]. rewrite <- Efp in *.
      destruct (m_get (s_subs ss) (fix_path sp)) as [e|] eqn:Hget.
      - exact (proj1 (K_change B sv ss T (fix_path sp) f e I Hpo Hss Hget Hne HnT HK)).
      - exact (K_new B sv ss T (fix_path sp) f I Hss Hget Hne HK). }
    destruct (subscribe_one_track fx sv s (sp, f) s ss Hss) as [ss1 [Hss1 _]].
    destruct (IH (S B) sv1 (fix_path sp :: T)) as [H2 [H3 H4]]; eauto.
    + eapply small_le; [|exact HB]. cbn [length]. lia.
    + now apply pend_ok_subscribe_one.
    + intros p Hp. destruct (Hok p (or_intror Hp)) as [Ha Hb]. split; auto.
      intros [Hc|Hc]; [|contradiction]. subst p. contradiction.
    + split; [now rewrite <- app_assoc|split; [exact H3|]].
      replace (B + S (length subs)) with (S B + length subs) by lia. exact H4.
Qed.

End Sub.

Section Fetch.
Context {M : MatchOps} {L : MatchLaws M}.
Variable fx : fixes.
Hypothesis guard_on : fx_guard fx = true.
Variable mir : mirror.
Variable s : sid.
Variable ss : session.           (* the asking session's record when the fetch starts *)

Notation V := (V mir).

Definition gskip (p : path) : bool := own_node ss p && Nat.leb 2 (length p).

Definition gstep (acc : option ditems * server) (n : node) : option ditems * server :=
  if own_node ss (n_path n) then acc
  else
    let r := di_add_set (match fst acc with Some r => r | None => empty_di end) (n_path n) (n_data n) in
    if N.leb (s_max ss) (di_num_names r) then (None, upd_session (snd acc) s (fun x => send x r)) else (Some r, snd acc).

(* what stays true of the accumulator: the session is there under its name and limit, has nothing pending,
   and the reply under construction has distinct field names *)
Definition Iacc (acc : option ditems * server) : Prop :=
  (exists ss0, get_session (snd acc) s = Some ss0 /\ s_name ss0 = s_name ss /\ s_max ss0 = s_max ss /\ s_pending ss0 = None)
  /\ (forall r, fst acc = Some r -> di_ok r).

Lemma own_node_name : forall (a b : session) p, s_name a = s_name b -> own_node a p = own_node b p.
Proof. intros a b p H. unfold own_node. now rewrite H. Qed.

Lemma gskip_depth : forall p, gskip p = true -> 2 <= length p.
Proof. intros p H. unfold gskip in H. apply andb_true_iff in H as [_ H]. now apply Nat.leb_le in H. Qed.

Lemma own_node_ext : forall p r, 2 <= length p -> own_node ss (p ++ r) = own_node ss p.
Proof.
  intros p r H. destruct p as [|a [|b p]]; cbn in H; try lia. reflexivity.
Qed.

Lemma gskip_ext : forall p r, gskip p = true -> gskip (p ++ r) = true.
Proof.
  intros p r H. pose proof (gskip_depth p H) as Hl. unfold gskip in *. apply andb_true_iff in H as [H1 _].
  rewrite own_node_ext by auto. rewrite H1. cbn [andb]. apply Nat.leb_le. rewrite app_length. lia.
Qed.

Lemma gskip_enter : forall p k, gskip (p ++ [k]) = true -> gskip p = false -> length p <= 2.
Proof.
  intros p k H1 H2. destruct (Nat.leb 2 (length p)) eqn:E; [|apply Nat.leb_gt in E; lia].
  apply Nat.leb_le in E. unfold gskip in *. rewrite own_node_ext in H1 by auto.
  apply andb_true_iff in H1 as [H1 _]. rewrite H1 in H2. cbn [andb] in H2.
  apply Nat.leb_gt in H2. lia.
Qed.

Lemma Iacc_send : forall reply sv0 r, Iacc (reply, sv0) -> Iacc (None, upd_session sv0 s (fun x => send x r)).
Proof.
  intros reply sv0 r [[ss0 [H1 [H2 [H3 H4]]]] _]. split; [|intros r0 Hr0; discriminate].
  cbn [snd] in *. exists (send ss0 r). rewrite get_session_upd by reflexivity. rewrite N.eqb_refl, H1. auto.
Qed.

Lemma getdata_go : forall acc n, Iacc acc -> gskip (n_path n) = false ->
  exists nd, getdata_cb s acc n = (gstep acc n, nd) /\ (Z.of_nat (depth n) - 1 <= nd)%Z /\ Iacc (gstep acc n).
Proof.
  intros [reply sv0] n HI Hsk. pose proof HI as [[ss0 [H1 [H2 [H3 H4]]]] Hr]. cbn [fst snd] in *.
  unfold getdata_cb, gstep. rewrite H1. cbn [fst snd]. rewrite (own_node_name ss0 ss _ H2), H3.
  destruct (own_node ss (n_path n)) eqn:Eo.
  - exists (Z.of_nat session_depth). split; [reflexivity|split; [|exact HI]].
    unfold gskip in Hsk. rewrite Eo in Hsk. cbn [andb] in Hsk. apply Nat.leb_gt in Hsk. unfold depth. change session_depth with 2. lia.
  - set (r := di_add_set (match reply with Some r => r | None => empty_di end) (n_path n) (n_data n)).
    assert (Hrok : di_ok r).
    { unfold r. apply di_add_set_ok. destruct reply; [now apply Hr|apply empty_di_ok]. }
    destruct (N.leb (s_max ss) (di_num_names r)).
    + exists (Z.of_nat (depth n)). split; [reflexivity|split; [lia|]]. now apply (Iacc_send reply).
    + exists (Z.of_nat (depth n)). split; [reflexivity|split; [lia|]].
      split; [exists ss0; auto|]. intros r0 Hr0. cbn in Hr0. inversion Hr0; now subst.
Qed.

Lemma getdata_skip : forall acc n, Iacc acc -> gskip (n_path n) = true -> getdata_cb s acc n = (acc, Z.of_nat 2).
Proof.
  intros [reply sv0] n [[ss0 [H1 [H2 _]]] _] Hsk. cbn [snd] in H1. unfold getdata_cb. rewrite H1.
  rewrite (own_node_name ss0 ss _ H2). unfold gskip in Hsk. apply andb_true_iff in Hsk as [Hsk _]. now rewrite Hsk.
Qed.

Definition Wacc (acc : option ditems * server) (q : path) : option (option payload) :=
  option_map (fun ss0 => mirror_get (match fst acc with Some r => apply_di (vm mir ss0) r | None => vm mir ss0 end) q)
             (get_session (snd acc) s).

Lemma vm_send : forall ss0 r, s_pending ss0 = None -> vm mir (send ss0 r) = apply_di (vm mir ss0) r.
Proof.
  intros ss0 r H. unfold vm. cbn [send s_out s_pending]. rewrite H. apply apply_all_snoc.
Qed.

Lemma gstep_W : forall acc n, Iacc acc ->
  Iacc (gstep acc n) /\ same_core (snd acc) (snd (gstep acc n))
  /\ forall q, Wacc (gstep acc n) q
       = if path_eqb (n_path n) q && negb (own_node ss (n_path n)) then Some (Some (n_data n)) else Wacc acc q.
Proof.
  intros [reply sv0] n HI. pose proof HI as [[ss0 [H1 [H2 [H3 H4]]]] Hr]. cbn [fst snd] in *.
  unfold gstep. cbn [fst snd]. destruct (own_node ss (n_path n)) eqn:Eo.
  - split; [exact HI|split; [apply same_core_refl|]]. intros q. now rewrite andb_false_r.
  - set (r0 := match reply with Some r => r | None => empty_di end).
    set (r := di_add_set r0 (n_path n) (n_data n)).
    assert (Hr0ok : di_ok r0) by (unfold r0; destruct reply; [now apply Hr|apply empty_di_ok]).
    assert (Hval : forall q, mirror_get (apply_di (vm mir ss0) r) q
                   = if path_eqb (n_path n) q then Some (n_data n)
                     else mirror_get (match reply with Some r1 => apply_di (vm mir ss0) r1 | None => vm mir ss0 end) q).
    { intros q. rewrite apply_di_get. unfold r. rewrite di_lookup_add_set by exact Hr0ok.
      destruct (path_eqb (n_path n) q); [reflexivity|].
      unfold r0. destruct reply as [r1|]; [now rewrite apply_di_get|reflexivity]. }
    cbn [negb]. destruct (N.leb (s_max ss) (di_num_names r)).
    + split; [now apply (Iacc_send reply)|split; [apply upd_session_core; reflexivity|]].
      intros q. unfold Wacc. cbn [fst snd]. rewrite get_session_upd by reflexivity. rewrite N.eqb_refl, H1.
      cbn [option_map]. rewrite vm_send by exact H4. rewrite Hval, andb_true_r.
      destruct (path_eqb (n_path n) q); reflexivity.
    + split; [|split; [apply same_core_refl|]].
      * split; [exists ss0; auto|]. intros r1 Hr1. cbn in Hr1. inversion Hr1. subst r1. unfold r. now apply di_add_set_ok.
      * intros q. unfold Wacc. cbn [fst snd]. rewrite H1. cbn [option_map]. rewrite Hval, andb_true_r.
        destruct (path_eqb (n_path n) q); reflexivity.
Qed.

Lemma gfold_W : forall (l : list node) acc, NoDup (map n_path l) -> Iacc acc ->
  Iacc (fold_left gstep l acc) /\ same_core (snd acc) (snd (fold_left gstep l acc))
  /\ forall q, Wacc (fold_left gstep l acc) q
       = match find (fun n => path_eqb (n_path n) q && negb (own_node ss (n_path n))) l with
         | Some n => Some (Some (n_data n))
         | None => Wacc acc q
         end.
Proof.
  induction l as [|n l IH]; intros acc Hnd HI; cbn [fold_left].
  - split; [auto|split; [apply same_core_refl|]]. intros q. reflexivity.
  - cbn in Hnd. inversion Hnd as [|? ? Hn Hnd']; subst.
    destruct (gstep_W acc n HI) as [HI1 [Hc1 HW1]].
    destruct (IH (gstep acc n) Hnd' HI1) as [H1 [H2 H3]].
    split; [auto|split; [eapply same_core_trans; eauto|]].
    intros q. rewrite H3, HW1. cbn [find].
    destruct (path_eqb (n_path n) q && negb (own_node ss (n_path n))) eqn:E.
    + apply andb_true_iff in E as [E _]. apply path_eqb_eq in E. subst q.
      destruct (find (fun n0 => path_eqb (n_path n0) (n_path n) && negb (own_node ss (n_path n0))) l) as [x|] eqn:Ef; auto.
      apply find_some in Ef as [Hx1 Hx2]. apply andb_true_iff in Hx2 as [Hx2 _]. apply path_eqb_eq in Hx2.
      exfalso. apply Hn. rewrite <- Hx2. now apply in_map.
    + reflexivity.
Qed.

Lemma fold_left_ext2 : forall (A B : Type) (f g : A -> B -> A) l a, (forall x y, f x y = g x y) -> fold_left f l a = fold_left g l a.
Proof. intros A B f g. induction l as [|b l IH]; intros a H; cbn; auto. rewrite H. now apply IH. Qed.

Lemma g'_gstep : forall acc n, g' (option ditems * server) gstep gskip acc n = gstep acc n.
Proof.
  intros acc n. unfold g'. destruct (gskip (n_path n)) eqn:E; auto.
  unfold gskip in E. apply andb_true_iff in E as [E _]. unfold gstep. now rewrite E.
Qed.

Theorem fetch_V : forall sv keys, pend_ok sv -> get_session sv s = Some ss -> s_pending ss = None ->
  let Mf := m_of_list (map (fun kf => (fix_path (fst kf), snd kf)) keys) in
  NoDup (map n_path (vlist (sv_tree sv) Mf [] true)) ->
  let sv' := do_get_data fx sv s keys in
  same_core sv sv'
  /\ forall q, V sv' s q
       = match find (fun n => path_eqb (n_path n) q && negb (own_node ss (n_path n))) (vlist (sv_tree sv) Mf [] true) with
         | Some n => Some (Some (n_data n))
         | None => V sv s q
         end.
Proof.
  intros sv keys Hpo Hss Hnp Mf Hnd sv'.
  assert (HI0 : Iacc (None, sv)).
  { split; [exists ss; auto|]. intros r Hr. discriminate. }
  assert (Hfold : do_traversal (getdata_cb s) (sv_tree sv) Mf [] true (fx_guard fx) (None, sv)
                  = fold_left gstep (vlist (sv_tree sv) Mf [] true) (None, sv)).
  { unfold do_traversal. rewrite guard_on.
    rewrite (trav_fold (option ditems * server) (getdata_cb s) gstep gskip 2 Iacc (sv_tree sv) Mf 0 true true
               gskip_depth gskip_ext gskip_enter getdata_go getdata_skip); auto.
    cbn [fst]. unfold vlist. cbn [length]. apply fold_left_ext2. apply g'_gstep. }
  destruct (gfold_W (vlist (sv_tree sv) Mf [] true) (None, sv) Hnd HI0) as [HI1 [Hc1 HW1]].
  unfold sv', do_get_data. fold Mf. rewrite Hfold.
  destruct (fold_left gstep (vlist (sv_tree sv) Mf [] true) (None, sv)) as [reply sv1] eqn:Ef.
  cbn [snd] in Hc1.
  assert (HW0 : forall q, Wacc (None, sv) q = V sv s q) by (intros q; reflexivity).
  destruct HI1 as [[ss1 [H1 [H2 [H3 H4]]]] Hrok]. cbn [fst snd] in *.
  destruct reply as [r|].
  - split; [eapply same_core_trans; [exact Hc1|apply upd_session_core; reflexivity]|].
    intros q. rewrite <- HW0, <- HW1. unfold V, Wacc. cbn [fst snd].
    rewrite get_session_upd by reflexivity. rewrite N.eqb_refl, H1. cbn [option_map]. now rewrite vm_send.
  - split; [exact Hc1|]. intros q. rewrite <- HW0, <- HW1. reflexivity.
Qed.

Lemma fetch_entries : forall keys : list (spath * option qfilter),
  NoDup (fixed keys) -> (forall p, In p (fixed keys) -> p <> []) ->
  forall x, In x (all_entries (m_of_list (map (fun kf => (fix_path (fst kf), snd kf)) keys)))
            <-> exists sf, In sf keys /\ x = mkEntry (fix_path (fst sf)) (snd sf).
Proof.
  intros keys Hnd Hne x. rewrite m_of_list_entries.
  - split.
    + intros [pf [H1 H2]]. apply in_map_iff in H1 as [sf [H3 H4]]. subst pf. cbn [fst snd] in H2. eauto.
    + intros [sf [H1 H2]]. exists (fix_path (fst sf), snd sf). split; [apply in_map_iff; eauto|auto].
  - rewrite map_map. cbn [fst]. exact Hnd.
  - intros pf Hpf. apply in_map_iff in Hpf as [sf [H1 H2]]. subst pf. cbn [fst]. apply Hne. unfold fixed. apply in_map_iff. eauto.
Qed.

Lemma fetch_found : forall t Mf q n, wf_tree t -> wf_groups (m_groups Mf) ->
  find (fun n => path_eqb (n_path n) q && negb (own_node ss (n_path n))) (vlist t Mf [] true) = Some n ->
  find_node t q = Some n /\ exists x, In x (all_entries Mf) /\ ematch x q (n_data n) = true.
Proof.
  intros t Mf q n Ht Hm Hf. apply find_some in Hf as [Hf1 Hf2]. apply andb_true_iff in Hf2 as [Hf2 _]. apply path_eqb_eq in Hf2.
  apply vlist_spec in Hf1 as [Hf1 [_ Hf3]]; auto. cbn [length] in Hf3. unfold dsel in Hf3.
  rewrite matches_node_path, Hf2 in Hf3 by auto. apply matches_path_ematch in Hf3; auto.
  split; [|exact Hf3]. rewrite <- Hf2. apply find_node_in; [apply Ht|exact Hf1].
Qed.

End Fetch.

Section SubJ.
Context {M : MatchOps} {L : MatchLaws M}.
Variable fx : fixes.
Hypothesis guard_on : fx_guard fx = true.
Hypothesis overlap_on : fx_overlap fx = true.
Hypothesis push_on : fx_push fx = true.
Variable mir : mirror.
Variable s : sid.

Notation J := (J mir).
Notation V := (V mir).

Lemma K_push_all : forall sv T, K mir s sv T -> K mir s (push_all sv) T.
Proof.
  intros sv T HK ss' Hss' q Hown.
  destruct (get_session_sess sv (push_all sv) s ss' (same_core_sess _ _ (push_all_core sv)) Hss') as [ss [Hss [Hsub Hdir]]].
  destruct (push_all_core sv) as [Ht _]. rewrite Ht, V_push_all, <- Hsub.
  apply (HK ss Hss q). now rewrite (own_node_dir ss ss' q Hdir).
Qed.

Theorem subscribe_cmd_J : forall B sv subs, small (B + length subs) ->
  inv B sv -> pend_ok sv -> (exists ss, get_session sv s = Some ss) ->
  NoDup (fixed subs) -> (forall p, In p (fixed subs) -> p <> []) ->
  J sv s ->
  let sv1 := fold_left (fun sv' sf => subscribe_one fx sv' s sf) subs sv in
  let sv2 := match subs with
             | [] => sv1
             | _ => do_get_data fx (if fx_push fx then push_all sv1 else sv1) s subs
             end in
  J sv2 s /\ pend_ok sv2.
Proof.
  intros B sv subs HB I Hpo [ss Hss] Hnd Hne HJ sv1 sv2.
  pose proof (J_K mir s sv (inv_marks_ok _ _ _ I) HJ) as HK0.
  assert (Hok : forall p, In p (fixed subs) -> p <> [] /\ ~ In p []).
  { intros p Hp. split; [now apply Hne|intros []]. }
  destruct (subscribe_loop_K fx guard_on overlap_on mir s subs B sv [] HB I Hpo (ex_intro _ ss Hss) Hnd Hok HK0) as [HK1 [Hpo1 I1]].
  destruct (subscribe_fold_track fx subs sv s Hpo) as [_ Htr]. destruct (Htr s ss Hss) as [ss1 [Hss1 [_ Hsub1]]].
  rewrite N.eqb_refl in Hsub1.
  assert (HR1 : forall sf, In sf subs -> In (mkEntry (fix_path (fst sf)) (snd sf)) (all_entries (s_subs ss1))).
  { intros sf Hsf. rewrite Hsub1. apply put_fold_in; auto. exact (session_wf _ _ _ _ _ I Hss). }
  fold sv1 in HK1, Hpo1, I1, Hss1. rewrite app_nil_r in HK1.
  unfold sv2. clear sv2.
  destruct subs as [|sf0 subs0] eqn:Esubs; [split; [exact HJ|exact Hpo]|]. rewrite <- Esubs in *.
  rewrite push_on.
  set (svp := push_all sv1).
  assert (Hcp : same_core sv1 svp) by apply push_all_core.
  assert (HKp : K mir s svp (rev (fixed subs))) by (now apply K_push_all).
  assert (Hpop : pend_ok svp) by (now apply pend_ok_push_all).
  destruct (get_session_core_some sv1 svp s ss1 Hcp Hss1) as [ssp [Hssp Hsubp]].
  assert (Hnp : s_pending ssp = None).
  { apply (push_all_no_pending sv1 Hpo1). apply find_session_some in Hssp. tauto. }
  assert (Ip : inv (B + length subs) svp) by (eapply inv_same_core; [exact Hcp|exact I1]).
  pose proof (inv_tree _ _ _ Ip) as Htp.
  set (Mf := m_of_list (map (fun kf => (fix_path (fst kf), snd kf)) subs)).
  assert (HwMf : wf_groups (m_groups Mf)) by apply m_of_list_wf.
  assert (HndVl : NoDup (map n_path (vlist (sv_tree svp) Mf [] true))) by (now apply vlist_paths_nodup).
  destruct (fetch_V fx guard_on mir s ssp svp subs Hpop Hssp Hnp HndVl) as [Hc2 HV2]. fold Mf in HV2.
  split; [|now apply pend_ok_do_get_data].
  pose proof (fetch_entries subs Hnd Hne) as HMf. fold Mf in HMf.
  pose proof (session_wf _ _ _ _ _ Ip Hssp) as Hwp.
  apply (J_intro mir svp); [now apply same_core_sess|].
  intros ss0 Hss0 q Hown. assert (ss0 = ssp) by congruence. subst ss0.
  destruct Hc2 as [Ht2 _]. rewrite Ht2, HV2.
  destruct (HKp ssp Hssp q Hown) as [K1 K2].
  rewrite expected_exp_with. fold (data_at (sv_tree svp) q).
  set (E := s_subs ssp) in *.
  assert (HRp : forall sf, In sf subs -> In (mkEntry (fix_path (fst sf)) (snd sf)) (all_entries E)).
  { intros sf Hsf. rewrite Hsubp. now apply HR1. }
  pose proof (fun n => fetch_found ssp (sv_tree svp) Mf q n Htp HwMf) as Hfound.
  destruct (data_at (sv_tree svp) q) as [v|] eqn:Hdq.
  - unfold data_at in Hdq. destruct (find_node (sv_tree svp) q) as [nq|] eqn:Hfq; [|discriminate].
    cbn in Hdq. inversion Hdq; subst v. clear Hdq.
    pose proof (find_node_some _ _ _ Hfq) as [Hnq Hpq].
    destruct (exp_with E q (Some (n_data nq))) as [v'|] eqn:Eexp.
    + (* selected by the subscriptions *)
      assert (v' = n_data nq).
      { unfold exp_with in Eexp. destruct (matches_path E q (Some (n_data nq))); congruence. }
      subst v'. apply exp_with_some in Eexp as [e [He Hm]]; auto.
      destruct (find _ (vlist (sv_tree svp) Mf [] true)) as [n0|] eqn:Ef.
      * destruct (Hfound n0 eq_refl) as [H1 _]. congruence.
      * (* not fetched: then the selecting entry is one the Message did not touch *)
        apply (K2 e (n_data nq)); auto.
        intros HT. apply in_rev in HT. unfold fixed in HT. apply in_map_iff in HT as [sf [Hsf1 Hsf2]].
        assert (e = mkEntry (fix_path (fst sf)) (snd sf)).
        { apply (entries_unique E); auto. }
        assert (HinVl : In nq (vlist (sv_tree svp) Mf [] true)).
        { apply vlist_spec; auto. split; [auto|split; [exists (n_path nq); split; [|reflexivity]|]].
          - destruct Htp as [_ [Hne' _]]. now apply Hne'.
          - cbn [length]. unfold dsel. rewrite matches_node_path by auto. apply matches_path_ematch; auto.
            exists e. split; [apply HMf; eauto|now rewrite Hpq]. }
        pose proof (find_none _ _ Ef nq HinVl) as Hc. cbn in Hc. rewrite Hpq, path_eqb_refl, Hown in Hc. discriminate.
    + (* not selected: nothing is fetched, nothing was held *)
      destruct (find _ (vlist (sv_tree svp) Mf [] true)) as [n0|] eqn:Ef; [|now apply K1].
      exfalso. destruct (Hfound n0 eq_refl) as [H1 [x [Hx Hm]]].
      assert (n0 = nq) by congruence. subst n0. apply HMf in Hx as [sf [Hsf1 Hsf2]]. subst x.
      rewrite exp_with_none in Eexp by auto. rewrite (Eexp _ (HRp sf Hsf1)) in Hm. discriminate.
  - (* no node at q *)
    destruct (find _ (vlist (sv_tree svp) Mf [] true)) as [n0|] eqn:Ef; [|now apply K1].
    exfalso. destruct (Hfound n0 eq_refl) as [H1 _]. unfold data_at in Hdq. rewrite H1 in Hdq. discriminate.
Qed.

End SubJ.

Section Get.
Context {M : MatchOps} {L : MatchLaws M}.
Variable fx : fixes.
Hypothesis guard_on : fx_guard fx = true.
Variable mir : mirror.
Variable s : sid.

Notation J := (J mir).
Notation V := (V mir).

Theorem getdata_covered_J : forall B sv ss keys,
  inv B sv -> pend_ok sv -> get_session sv s = Some ss -> s_pending ss = None ->
  NoDup (fixed keys) -> (forall p, In p (fixed keys) -> p <> []) ->
  (forall kf, In kf keys -> In (mkEntry (fix_path (fst kf)) (snd kf)) (all_entries (s_subs ss))) ->
  J sv s -> J (do_get_data fx sv s keys) s.
Proof.
  intros B sv ss keys I Hpo Hss Hnp Hnd Hne Hcov HJ.
  pose proof (inv_tree _ _ _ I) as Ht.
  set (Mf := m_of_list (map (fun kf => (fix_path (fst kf), snd kf)) keys)).
  assert (HwMf : wf_groups (m_groups Mf)) by apply m_of_list_wf.
  assert (HndVl : NoDup (map n_path (vlist (sv_tree sv) Mf [] true))) by (now apply vlist_paths_nodup).
  destruct (fetch_V fx guard_on mir s ss sv keys Hpo Hss Hnp HndVl) as [Hc2 HV2]. fold Mf in HV2.
  pose proof (fetch_entries keys Hnd Hne) as HMf. fold Mf in HMf.
  pose proof (session_wf _ _ _ _ _ I Hss) as Hw.
  apply (J_intro mir sv); [now apply same_core_sess|].
  intros ss0 Hss0 q Hown. assert (ss0 = ss) by congruence. subst ss0.
  destruct Hc2 as [Ht2 _]. rewrite Ht2, HV2.
  destruct (find _ (vlist (sv_tree sv) Mf [] true)) as [n|] eqn:Ef; [|now apply HJ].
  apply (fetch_found ss _ _ _ _ Ht HwMf) in Ef as [Hf [x [Hx Hm]]].
  apply HMf in Hx as [sf [Hsf1 Hsf2]]. subst x.
  rewrite expected_exp_with, Hf. cbn [option_map].
  f_equal. symmetry. apply exp_with_some; auto. exists (mkEntry (fix_path (fst sf)) (snd sf)). split; [now apply Hcov|exact Hm].
Qed.

End Get.
