(* Refl/MirrorCmd.v -- the subscriber invariant J through whole commands (MessageReceivedFromGateway), for the
   observer's own commands and for everybody else's. *)
From Coq Require Import List NArith ZArith Bool Arith Lia.
From Muscle Require Import Gen.Consts Refl.Base Refl.BaseProofs Refl.Matcher Refl.Session Refl.Server
     Refl.ServerProofs Refl.Mirror Refl.MirrorServer Refl.MirrorSem Refl.MirrorSteps Refl.MirrorHandlers
     Refl.MirrorSubscribe Refl.MirrorFrame Refl.MirrorQuiet.
Import ListNotations.

Section Cmd.
Context {M : MatchOps} {L : MatchLaws M}.

(* what may be quiet: no change of the tree by another session, and not the observer's own SUBSCRIBE: (it would miss the
   initial values).  Another session's quiet subscription is nobody else's business, and neither are the observer's own
   quiet SETDATA / REMOVEDATA: they touch its own subtree only, which its mirror statement leaves out.
   [own] = the sender is the observer *)
Fixpoint cmd_loud_for (own : bool) (c : cmd) : bool :=
  match c with
  | CSetData flags _ => own || negb (flag_set flags c_SETDATANODE_FLAG_QUIET)
  | CRemoveData q _ => own || negb q
  | CSubscribe q _ => negb q || negb own
  | CBatch l => forallb (cmd_loud_for own) l
  | _ => true
  end.

(* everything loud (the strongest form; implies cmd_loud_for) *)
Fixpoint cmd_loud (c : cmd) : bool :=
  match c with
  | CSetData flags _ => negb (flag_set flags c_SETDATANODE_FLAG_QUIET)
  | CRemoveData q _ => negb q
  | CSubscribe q _ => negb q
  | CBatch l => forallb cmd_loud l
  | _ => true
  end.

(* no unsubscribe anywhere in the command *)
Fixpoint cmd_nounsub (c : cmd) : bool :=
  match c with
  | CUnsubscribe _ => false
  | CBatch l => forallb cmd_nounsub l
  | _ => true
  end.

(* neither an explicit GETDATA nor an unsubscribe anywhere in the command *)
Fixpoint cmd_plain (c : cmd) : bool :=
  match c with
  | CGetData _ => false
  | CUnsubscribe _ => false
  | CBatch l => forallb cmd_plain l
  | _ => true
  end.

(* the keys of every explicit GETDATA in the command are subscriptions the sender holds at that moment (same path, same
   filter; distinct non-empty paths): [m] is its subscription table when the command starts, threaded through a BATCH *)
Fixpoint cmd_covered (m : matcher) (c : cmd) : Prop :=
  match c with
  | CGetData keys =>
    NoDup (fixed keys) /\ (forall p, In p (fixed keys) -> p <> []) /\
    forall kf, In kf keys -> In (mkEntry (fix_path (fst kf)) (snd kf)) (all_entries m)
  | CBatch l =>
    (fix all (l : list cmd) (m : matcher) : Prop :=
       match l with [] => True | c' :: r => cmd_covered m c' /\ all r (fst (client_cmd m c')) end) l m
  | _ => True
  end.

(* the SUBSCRIBE: fields of one Message have distinct, non-empty paths (they are field names of one Message) *)
Fixpoint cmd_subs_ok (c : cmd) : Prop :=
  match c with
  | CSubscribe _ subs => NoDup (fixed subs) /\ forall p, In p (fixed subs) -> p <> []
  | CBatch l => (fix all (l : list cmd) : Prop := match l with [] => True | c' :: r => cmd_subs_ok c' /\ all r end) l
  | _ => True
  end.

(* none of o's subscription paths reaches below the session node of b (both attached) *)
Definition hidden_from (sv : server) (o b : sid) : Prop :=
  exists so sb, get_session sv o = Some so /\ get_session sv b = Some sb /\
                hidden_data (all_entries (s_subs so)) (session_dir sb).

Variable fx : fixes.
Hypothesis guard_on : fx_guard fx = true.
Hypothesis overlap_on : fx_overlap fx = true.
Hypothesis push_on : fx_push fx = true.
Variable mir : mirror.
Variable o : sid.                (* the observer *)

Notation J := (J mir).
Notation V := (V mir).

Lemma subscribe_fold_other : forall subs sv b, b <> o -> pend_ok sv ->
  let sv' := fold_left (fun sv' sf => subscribe_one fx sv' b sf) subs sv in pend_ok sv' /\ other_frame mir o sv sv'.
Proof.
  induction subs as [|sf subs IH]; intros sv b Hne Hpo; cbn [fold_left]; [split; [auto|apply other_refl]|].
  destruct (IH (subscribe_one fx sv b sf) b Hne (pend_ok_subscribe_one fx sv b sf Hpo)) as [H1 H2].
  split; [exact H1|]. exact (other_trans mir o _ _ _ (subscribe_one_other fx mir sv b sf o Hne Hpo) H2).
Qed.

Lemma unsubscribe_fold_other : forall subs sv b, b <> o -> pend_ok sv ->
  let sv' := fold_left (fun sv' sp => unsubscribe_one fx sv' b sp) subs sv in pend_ok sv' /\ other_frame mir o sv sv'.
Proof.
  induction subs as [|sp subs IH]; intros sv b Hne Hpo; cbn [fold_left]; [split; [auto|apply other_refl]|].
  destruct (IH (unsubscribe_one fx sv b sp) b Hne (pend_ok_unsubscribe_one fx sv b sp Hpo)) as [H1 H2].
  split; [exact H1|]. exact (other_trans mir o _ _ _ (unsubscribe_one_other fx mir sv b sp o Hne) H2).
Qed.

(* a node command of b, seen by the observer: its own changes lie in its own subtree, which its statement leaves
   out; a quiet one of somebody else is fine where the observer cannot see (quiet_frame) *)
Lemma node_frame_J : forall B sv sv' b bs quiet, inv B sv -> pend_ok sv -> get_session sv b = Some bs ->
  node_frame b quiet (session_dir bs) sv sv' ->
  b = o \/ (quiet = true /\ hidden_from sv o b) -> J sv o -> J sv' o.
Proof.
  intros B sv sv' b bs quiet I Hpo Hbs F [E|[Hq [so [sb [Hso [Hsb Hhid]]]]]] HJ.
  - subst b. apply (J_frame_foreign mir sv); auto; [apply same_sess_for, (nf_sess F)|intros q; apply (nf_self F Hpo)|].
    intros ss Hss q Hfq. assert (ss = bs) by congruence. subst ss. apply expected_data, (nf_data F). now apply foreign_outside.
  - assert (sb = bs) by congruence. subst sb.
    apply (quiet_frame mir B sv sv' o so (session_dir bs)); auto; [exact (nf_rest F Hq)|exact (nf_data F)].
Qed.

Lemma loud_for_of_loud : forall c own, cmd_loud c = true -> cmd_loud_for own c = true.
Proof.
  induction c using cmd_ind'; intros own Hl; cbn [cmd_loud cmd_loud_for] in *; auto.
  - rewrite Hl. apply orb_true_r.
  - rewrite Hl. apply orb_true_r.
  - now rewrite Hl.
  - induction H as [|c l Hc Hl' IH]; [reflexivity|]. cbn [forallb] in *. apply andb_true_iff in Hl as [H1 H2].
    rewrite (Hc own H1), (IH H2). reflexivity.
Qed.

Lemma covered_of_plain : forall c m, cmd_plain c = true -> cmd_covered m c.
Proof.
  induction c using cmd_ind'; intros m Hp; cbn [cmd_plain cmd_covered] in *; try exact I; try discriminate.
  revert m. induction H as [|c l Hc Hl IH]; intros m; [exact I|]. cbn [forallb] in Hp. apply andb_true_iff in Hp as [H1 H2].
  split; [now apply Hc|now apply IH].
Qed.

Lemma nounsub_of_plain : forall c, cmd_plain c = true -> cmd_nounsub c = true.
Proof.
  induction c using cmd_ind'; intros Hp; cbn [cmd_plain cmd_nounsub] in *; auto.
  induction H as [|c l Hc Hl IH]; [reflexivity|]. cbn [forallb] in *. apply andb_true_iff in Hp as [H1 H2].
  rewrite (Hc H1), (IH H2). reflexivity.
Qed.

Lemma client_flag : forall c m, snd (client_cmd m c) = negb (cmd_nounsub c).
Proof.
  induction c using cmd_ind'; intros m; try reflexivity.
  cbn [client_cmd cmd_nounsub].
  assert (Hg : forall l0 acc, Forall (fun c => forall m, snd (client_cmd m c) = negb (cmd_nounsub c)) l0 ->
            snd ((fix go (l : list cmd) (acc : matcher * bool) : matcher * bool :=
                    match l with
                    | [] => acc
                    | c' :: r => let '(m1, u1) := client_cmd (fst acc) c' in go r (m1, snd acc || u1)
                    end) l0 acc) = snd acc || negb (forallb cmd_nounsub l0)).
  { induction l0 as [|c l0 IH]; intros acc HF; [cbn; now rewrite orb_false_r|].
    inversion HF as [|? ? Hc HF']; subst. cbn [forallb].
    pose proof (Hc (fst acc)) as Hs. destruct (client_cmd (fst acc) c) as [m1 u1]. cbn [snd] in Hs. subst u1.
    rewrite IH by auto. cbn [snd]. now rewrite negb_andb, orb_assoc. }
  now rewrite Hg.
Qed.

Lemma nounsub_no_unsub : forall c m, cmd_nounsub c = true -> snd (client_cmd m c) = false.
Proof. intros c m H. now rewrite client_flag, H. Qed.

Lemma hidden_from_tracks : forall sv sv' b f, b <> o -> tracks sv sv' b f -> hidden_from sv o b -> hidden_from sv' o b.
Proof.
  intros sv sv' b f Hne Htr [so [sb [H1 [H2 H3]]]].
  destruct (Htr o so H1) as [so' [Ha [_ Hb]]]. destruct (Htr b sb H2) as [sb' [Hc [Hd _]]].
  apply N.eqb_neq in Hne. rewrite Hne in Hb.
  exists so', sb'. split; [auto|split; [auto|]]. now rewrite Hb, Hd.
Qed.

(* quiet flags are allowed on commands of a session the observer cannot see (quiet_frame), otherwise cmd_loud_for *)
Lemma handle_J : forall c nest sv b B, small (B + cmd_budget c) ->
  (cmd_loud_for (N.eqb b o) c = true \/ (b <> o /\ hidden_from sv o b)) -> nest + cmd_depth c <= max_batch_nest ->
  (b = o -> cmd_nounsub c = true /\ cmd_subs_ok c /\
            forall ss, get_session sv o = Some ss -> s_pending ss = None /\ cmd_covered (s_subs ss) c) ->
  inv B sv -> pend_ok sv -> J sv o ->
  J (handle fx nest sv b c) o /\ pend_ok (handle fx nest sv b c).
Proof.
  induction c using cmd_ind'; intros nest sv b B HB Hloud Hdep Hown I Hpo HJ;
    cbn [handle cmd_budget cmd_loud_for cmd_nounsub cmd_subs_ok cmd_covered] in *;
    destruct (get_session sv b) as [bs|] eqn:Hbs; try (split; assumption); try (rewrite Nat.add_0_r in HB).
  - (* SETDATA *)
    destruct (flag_set f c_SETDATANODE_FLAG_QUIET) eqn:Efl; [|apply (set_data_items_J mir B i sv b f o); auto].
    pose proof (set_data_items_nf i sv b bs f Hbs) as F. split; [|exact (nf_pend F Hpo)].
    apply (node_frame_J B sv _ b bs _ I Hpo Hbs F); auto.
    destruct Hloud as [Hl|[_ Hh]]; [left; rewrite orb_false_r in Hl; now apply N.eqb_eq|now right].
  - (* REMOVEDATA *)
    pose proof (find_session_some _ _ _ Hbs) as [_ Hid].
    destruct q; [|apply (do_remove_data_J fx mir B [] sv bs k o); auto; now rewrite Hid].
    pose proof (do_remove_data_nf fx sv bs k true) as F. rewrite Hid in F. split; [|exact (nf_pend F Hpo)].
    apply (node_frame_J B sv _ b bs _ I Hpo Hbs F); auto.
    destruct Hloud as [Hl|[_ Hh]]; [left; rewrite orb_false_r in Hl; now apply N.eqb_eq|now right].
  - (* SETPARAMETERS with SUBSCRIBE: fields *)
    destruct (N.eq_dec b o) as [E|E].
    + subst b. destruct Hloud as [Hloud|[Hne _]]; [|congruence].
      rewrite N.eqb_refl, orb_false_r in Hloud. apply negb_true_iff in Hloud. subst q.
      destruct (Hown eq_refl) as [_ [[Hnd Hne] _]].
      apply (subscribe_cmd_J fx guard_on overlap_on push_on mir o B sv k); eauto.
    + destruct (subscribe_fold_other k sv b E Hpo) as [H4 HF].
      destruct q; [split; [now apply (other_J mir o sv)|exact H4]|].
      destruct k as [|sf0 k0] eqn:Ek; [split; [now apply (other_J mir o sv)|exact H4]|]. rewrite <- Ek in *.
      set (sv1 := fold_left (fun sv' sf => subscribe_one fx sv' b sf) k sv) in *.
      assert (Hp : pend_ok (if fx_push fx then push_all sv1 else sv1)) by (destruct (fx_push fx); [now apply pend_ok_push_all|auto]).
      split; [|now apply pend_ok_do_get_data].
      apply (other_J mir o sv); auto. apply (other_trans mir o sv sv1); [exact HF|].
      apply (other_trans mir o sv1 (if fx_push fx then push_all sv1 else sv1)).
      * destruct (fx_push fx); [apply other_core; [apply push_all_core|intros q0; apply V_push_all]|apply other_refl].
      * apply other_core; [apply do_get_data_core|intros q0; now apply do_get_data_other].
  - (* REMOVEPARAMETERS of SUBSCRIBE: names *)
    destruct (N.eq_dec b o) as [E|E]; [destruct (Hown E) as [Hp _]; discriminate|].
    destruct (unsubscribe_fold_other k sv b E Hpo) as [H4 HF].
    split; [now apply (other_J mir o sv)|exact H4].
  - (* max update items *)
    split; [|apply pend_ok_upd_keep; [reflexivity|auto]].
    apply (other_J mir o sv); auto. apply other_core; [apply upd_session_core; reflexivity|].
    intros q. apply V_upd_keep. intros x; auto.
  - (* reset of the same *) split; [|apply pend_ok_upd_keep; [reflexivity|auto]].
    apply (other_J mir o sv); auto. apply other_core; [apply upd_session_core; reflexivity|].
    intros q. apply V_upd_keep. intros x; auto.
  - (* GETDATA *)
    split; [|now apply pend_ok_do_get_data].
    destruct (N.eq_dec b o) as [E|E].
    + (* the observer's own: its keys are subscriptions it holds *)
      subst b. destruct (Hown eq_refl) as [_ [_ Hc]]. destruct (Hc bs Hbs) as [Hnp [Hnd [Hne Hcov]]].
      apply (getdata_covered_J fx guard_on mir o B sv bs k); auto.
    + apply (other_J mir o sv); auto. apply other_core; [apply do_get_data_core|intros q; now apply do_get_data_other].
  - (* BATCH *)
    cbn [cmd_depth] in Hdep.
    assert (Hlt : Nat.ltb nest max_batch_nest = true) by (apply Nat.ltb_lt; lia). rewrite Hlt.
    clear Hbs bs Hlt. revert sv B HB Hloud Hdep Hown I Hpo HJ.
    induction H as [|c l Hc Hl IHl]; intros sv B HB Hloud Hdep Hown I Hpo HJ; [split; assumption|].
    assert (Hl1 : cmd_loud_for (N.eqb b o) c = true \/ (b <> o /\ hidden_from sv o b)).
    { destruct Hloud as [Hloud|Hh]; [left|now right]. cbn [forallb] in Hloud. now apply andb_true_iff in Hloud as [Hl1 _]. }
    assert (Hown1 : b = o -> cmd_nounsub c = true /\ cmd_subs_ok c /\
              forall ss, get_session sv o = Some ss -> s_pending ss = None /\ cmd_covered (s_subs ss) c).
    { intros E. destruct (Hown E) as [Hp [[Hs _] Hcv]]. cbn [forallb] in Hp. apply andb_true_iff in Hp as [Hp _].
      split; [auto|split; [auto|]]. intros ss Hss. destruct (Hcv ss Hss) as [Hn [Hc1 _]]. auto. }
    match type of HB with small (B + (cmd_budget c + ?X)) => set (rest := X) in * end.
    destruct (Hc (S nest) sv b B) as [HJ1 Hpo1]; auto.
    { eapply small_le; [|exact HB]. lia. }
    { lia. }
    set (sv1 := push_all (handle fx (S nest) sv b c)).
    assert (I1 : inv (B + cmd_budget c) sv1).
    { eapply inv_same_core; [apply push_all_core|]. apply handle_inv; auto. eapply small_le; [|exact HB]. lia. }
    assert (Hpo2 : pend_ok sv1) by (now apply pend_ok_push_all).
    apply (IHl sv1 (B + cmd_budget c)); auto.
    + now rewrite <- Nat.add_assoc.
    + destruct Hloud as [Hloud|[Hne Hh]]; [left|right; split; [auto|]].
      * cbn [forallb] in Hloud. now apply andb_true_iff in Hloud as [_ Hl2].
      * destruct (handle_track fx c (S nest) sv b Hpo) as [_ Htr]; [lia|].
        apply (hidden_from_tracks (handle fx (S nest) sv b c) sv1 b (fun m => m) Hne).
        -- apply tracks_sess. apply same_core_sess. apply push_all_core.
        -- now apply (hidden_from_tracks sv _ b _ Hne Htr).
    + lia.
    + intros E. destruct (Hown E) as [Hp [[_ Hs] Hcv]]. cbn [forallb] in Hp. apply andb_true_iff in Hp as [_ Hp].
      split; [auto|split; [auto|]]. intros ss1 Hss1.
      split; [apply (push_all_no_pending (handle fx (S nest) sv b c) Hpo1); apply find_session_some in Hss1; tauto|].
      subst b.
      destruct (get_session sv o) as [ss|] eqn:Hss.
      * destruct (Hcv ss eq_refl) as [_ [_ Hrest]].
        destruct (handle_track fx c (S nest) sv o Hpo) as [_ Htr]; [lia|].
        destruct (Htr o ss Hss) as [ss' [Hss' [_ Hsub']]]. rewrite N.eqb_refl in Hsub'.
        destruct (get_session_core_some _ sv1 o ss' (push_all_core _) Hss') as [ss1' [Hss1' Hsub1]].
        assert (ss1' = ss1) by (unfold sv1 in *; congruence). subst ss1'.
        rewrite Hsub1, Hsub'. exact Hrest.
      * exfalso.
        assert (Hh : handle fx (S nest) sv o c = sv) by (destruct c; cbn [handle]; rewrite Hss; reflexivity).
        assert (Hcs : same_sess sv sv1) by (unfold sv1; rewrite Hh; apply same_core_sess, push_all_core).
        destruct (get_session_sess sv sv1 o ss1 Hcs Hss1) as [x [Hx _]].
        congruence.
    + now apply J_push_all.
Qed.

End Cmd.
