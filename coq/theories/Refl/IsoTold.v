(* Refl/IsoTold.v -- C06: "every subscriber of those nodes is told".
   [told sv t p]: session t has, delivered or pending, a PR_RESULT_DATAITEMS Message whose removed-items list names p.
   Facts: NodeChangedAux with the being-removed flag makes it so, and nothing that happens later in the same turn --
   further notifications to anybody, pushes, tree surgery -- takes it back. *)
From Coq Require Import List NArith ZArith Bool Arith Lia.
From Muscle Require Import Refl.Base Refl.Tree Refl.Matcher Refl.Traverse Refl.Session Refl.Server Refl.IsoBase.
Import ListNotations.

Section Told.
Context {M : MatchOps}.

Definition sess_told_out (ss : session) (p : path) : Prop := exists d, In d (s_out ss) /\ In p (di_removed d).

Definition sess_told (ss : session) (p : path) : Prop :=
  sess_told_out ss p \/ exists d, s_pending ss = Some d /\ In p (di_removed d).

Definition told (sv : server) (t : sid) (p : path) : Prop :=
  exists ss, get_session sv t = Some ss /\ sess_told ss p.

Definition told_out (sv : server) (t : sid) (p : path) : Prop :=
  exists ss, get_session sv t = Some ss /\ sess_told_out ss p.

Lemma told_out_told : forall sv t p, told_out sv t p -> told sv t p.
Proof. intros sv t p [ss [H1 H2]]. exists ss. split; [exact H1|now left]. Qed.

(* ------------------------------------------------------------------ lookups through maps *)

Lemma find_session_map : forall (f : session -> session) l t,
  (forall x, s_id (f x) = s_id x) ->
  find_session (map f l) t = option_map f (find_session l t).
Proof.
  intros f l t Hf. induction l as [|x l IH]; cbn; [reflexivity|]. rewrite Hf. destruct (N.eqb (s_id x) t); [reflexivity|exact IH].
Qed.

Lemma get_session_upd : forall sv u (f : session -> session) t,
  (forall x, s_id (f x) = s_id x) ->
  get_session (upd_session sv u f) t = option_map (fun x => if N.eqb (s_id x) u then f x else x) (get_session sv t).
Proof.
  intros sv u f t Hf. unfold get_session, upd_session. cbn. apply find_session_map.
  intros x. destruct (N.eqb (s_id x) u); [apply Hf|reflexivity].
Qed.

Lemma get_session_push_all : forall sv t, sv_dirty sv = true ->
  get_session (push_all sv) t = option_map push_pending (get_session sv t).
Proof.
  intros sv t Hd. unfold push_all. rewrite Hd. unfold get_session. cbn. apply find_session_map.
  intros x. unfold push_pending. destruct (s_pending x); reflexivity.
Qed.

Lemma get_session_set_dirty : forall sv b t, get_session (set_dirty sv b) t = get_session sv t.
Proof. reflexivity. Qed.

Lemma told_set_dirty : forall sv b t p, told sv t p -> told (set_dirty sv b) t p.
Proof. intros sv b t p H. exact H. Qed.

Lemma told_out_set_dirty : forall sv b t p, told_out sv t p -> told_out (set_dirty sv b) t p.
Proof. intros sv b t p H. exact H. Qed.

(* ------------------------------------------------------------------ monotonicity, piece by piece *)

Lemma sess_told_push : forall ss p, sess_told ss p -> sess_told_out (push_pending ss) p.
Proof.
  intros ss p [[d [H Hp]]|[d [H Hp]]]; unfold push_pending.
  - destruct (s_pending ss); exists d; (split; [|exact Hp]); cbn; [apply in_or_app; now left|exact H].
  - rewrite H. exists d. split; [|exact Hp]. cbn. apply in_or_app. right. now left.
Qed.

Lemma told_push_all : forall sv t p, told sv t p -> told (push_all sv) t p.
Proof.
  intros sv t p H. destruct (sv_dirty sv) eqn:Hd.
  - destruct H as [ss [Hs Ht]]. exists (push_pending ss). rewrite (get_session_push_all sv t Hd), Hs. split; [reflexivity|].
    left. now apply sess_told_push.
  - unfold push_all. now rewrite Hd.
Qed.

Lemma told_push_all_out : forall sv t p, told sv t p -> sv_dirty sv = true -> told_out (push_all sv) t p.
Proof.
  intros sv t p [ss [Hs Ht]] Hd. exists (push_pending ss). rewrite (get_session_push_all sv t Hd), Hs. split; [reflexivity|].
  now apply sess_told_push.
Qed.

(* changing the pending Message of session u to d', where d' keeps every removed-item u's pending Message held *)
Lemma told_set_pending : forall sv u d' t p,
  (forall su d, get_session sv u = Some su -> s_pending su = Some d -> forall q, In q (di_removed d) -> In q (di_removed d')) ->
  told sv t p -> told (upd_session sv u (fun x => set_pending x (Some d'))) t p.
Proof.
  intros sv u d' t p Hk [ss [Hs Ht]]. unfold told. rewrite get_session_upd by reflexivity. rewrite Hs. cbn.
  destruct (N.eqb (s_id ss) u) eqn:E; [|exists ss; now split].
  exists (set_pending ss (Some d')). split; [reflexivity|].
  destruct Ht as [Ho|[d [Hp Hq]]]; [now left|]. right. exists d'. split; [reflexivity|].
  apply N.eqb_eq in E. pose proof (get_session_id _ _ _ Hs) as Hid. rewrite E in Hid. subst t.
  eapply Hk; eassumption.
Qed.

Lemma told_out_set_pending : forall sv u d' t p, told_out sv t p -> told_out (upd_session sv u (fun x => set_pending x d')) t p.
Proof.
  intros sv u d' t p [ss [Hs Ht]]. unfold told_out. rewrite get_session_upd by reflexivity. rewrite Hs. cbn.
  destruct (N.eqb (s_id ss) u); [exists (set_pending ss d')|exists ss]; now split.
Qed.

Lemma told_send : forall sv u d' t p, told sv t p -> told (upd_session sv u (fun x => send x d')) t p.
Proof.
  intros sv u d' t p [ss [Hs Ht]]. unfold told. rewrite get_session_upd by reflexivity. rewrite Hs. cbn.
  destruct (N.eqb (s_id ss) u); [|exists ss; now split].
  exists (send ss d'). split; [reflexivity|]. destruct Ht as [[d [H Hp]]|H]; [left|now right].
  exists d. split; [cbn; apply in_or_app; now left|exact Hp].
Qed.

Lemma pending_or_new_keeps : forall (ss : session) d q, s_pending ss = Some d -> In q (di_removed d) -> In q (di_removed (pending_or_new ss)).
Proof. intros ss d q H Hq. unfold pending_or_new. now rewrite H. Qed.

(* NodeChangedAux never takes a removal notice back, whoever it is for *)
Lemma told_node_changed_aux : forall sv u q d r t p, told sv t p -> told (node_changed_aux sv u q d r) t p.
Proof.
  intros sv u q d r t p H. unfold node_changed_aux.
  destruct (get_session sv u) as [su|] eqn:Eu; [|exact H].
  match goal with |- told (match get_session ?X u with _ => _ end) t p => set (sv1 := X) end.
  assert (Hkeep : forall su0 d0, get_session sv u = Some su0 -> s_pending su0 = Some d0 ->
                    forall q0, In q0 (di_removed d0) -> In q0 (di_removed (pending_or_new su))).
  { intros su0 d0 Hs0 Hp0 q0 Hq0. rewrite Eu in Hs0. inversion Hs0; subst su0. eapply pending_or_new_keeps; eassumption. }
  assert (H1 : told sv1 t p).
  { subst sv1. destruct r; [destruct (di_has_set (pending_or_new su) q)|].
    - (* the forced flush: everything pending goes out, then a fresh pending Message for u *)
      apply told_out_told. apply told_out_set_dirty. apply told_out_set_pending.
      apply told_push_all_out; [|reflexivity]. apply told_set_dirty. apply told_set_pending; [exact Hkeep|exact H].
    - apply told_set_dirty. apply told_set_pending; [|exact H].
      intros su0 d0 Hs0 Hp0 q0 Hq0. cbn. apply in_or_app. left. eapply Hkeep; eassumption.
    - apply told_set_dirty. apply told_set_pending; [|exact H].
      intros su0 d0 Hs0 Hp0 q0 Hq0. cbn. eapply Hkeep; eassumption. }
  destruct (get_session sv1 u) as [ss1|]; [|exact H1].
  destruct (s_pending ss1); [|exact H1]. destruct (N.leb _ _); [|exact H1]. now apply told_push_all.
Qed.

Lemma told_node_changed : forall sv u q d old r t p, told sv t p -> told (node_changed sv u q d old r) t p.
Proof.
  intros sv u q d old r t p. apply (node_changed_rule (fun a b => told a t p -> told b t p)); [auto|].
  intros r'. apply told_node_changed_aux.
Qed.

Lemma told_notify_fold : forall by_ q d old r t p (l : list (sid * N)) sv, told sv t p ->
  told (fold_left (fun sv' kc => if N.eqb (fst kc) by_ then sv' else node_changed sv' (fst kc) q d old r) l sv) t p.
Proof.
  intros by_ q d old r t p l. induction l as [|kc l IH]; intros sv H; cbn; [exact H|].
  apply IH. destruct (N.eqb _ _); [exact H|now apply told_node_changed].
Qed.

Lemma told_notify_changed : forall sv by_ q d old r t p, told sv t p -> told (notify_changed sv by_ q d old r) t p.
Proof.
  intros sv by_ q d old r t p H. unfold notify_changed. destruct (find_node _ _) as [n|]; [|exact H]. now apply told_notify_fold.
Qed.

(* ------------------------------------------------------------------ how a removal notice comes about *)

Lemma node_changed_aux_tells : forall sv t q d ss, get_session sv t = Some ss -> told (node_changed_aux sv t q d true) t q.
Proof.
  intros sv t q d ss Hs. unfold node_changed_aux. rewrite Hs.
  match goal with |- told (match get_session ?X t with _ => _ end) t q => set (sv1 := X) end.
  assert (H1 : told sv1 t q).
  { subst sv1. pose proof (get_session_id _ _ _ Hs) as Hid.
    destruct (di_has_set (pending_or_new ss) q).
    - unfold told. rewrite get_session_set_dirty, get_session_upd by reflexivity.
      destruct (get_session (push_all _) t) as [s2|] eqn:E2.
      + cbn. pose proof (get_session_id _ _ _ E2) as Hid2. rewrite Hid2, N.eqb_refl.
        exists (set_pending s2 (Some (di_add_removed empty_di q))). split; [reflexivity|]. right.
        exists (di_add_removed empty_di q). split; [reflexivity|]. cbn. now left.
      + exfalso. rewrite get_session_push_all in E2 by reflexivity. rewrite get_session_set_dirty, get_session_upd in E2 by reflexivity.
        rewrite Hs in E2. discriminate.
    - unfold told. rewrite get_session_set_dirty, get_session_upd by reflexivity. rewrite Hs. cbn. rewrite Hid, N.eqb_refl.
      exists (set_pending ss (Some (di_add_removed (pending_or_new ss) q))). split; [reflexivity|]. right.
      exists (di_add_removed (pending_or_new ss) q). split; [reflexivity|]. cbn. apply in_or_app. right. now left. }
  destruct (get_session sv1 t) as [ss1|]; [|exact H1].
  destruct (s_pending ss1); [|exact H1]. destruct (N.leb _ _); [|exact H1]. now apply told_push_all.
Qed.

(* NodeChanged(node, oldData = its data, being removed) tells t, unless t uses filters and none of its subscriptions accepts the node *)
Lemma node_changed_tells : forall sv t q d ss,
  get_session sv t = Some ss ->
  (N.ltb 0 (m_nfilters (s_subs ss)) = true -> matches_node (s_subs ss) q (Some d) 0 = true) ->
  told (node_changed sv t q d (Some d) true) t q.
Proof.
  intros sv t q d ss Hs Hf. unfold node_changed. rewrite Hs.
  destruct (N.ltb 0 (m_nfilters (s_subs ss))) eqn:E.
  - rewrite (Hf eq_refl). eapply node_changed_aux_tells; eassumption.
  - eapply node_changed_aux_tells; eassumption.
Qed.

End Told.
