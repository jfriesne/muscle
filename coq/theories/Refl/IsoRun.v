(* Refl/IsoRun.v -- C06: the server invariant of Refl/ServerProofs.v holds in every state the dispatcher model
   (Refl/IsoModel.v) reaches, so the statements of Refl/IsoDetach.v apply to a connection that ends at ANY point of ANY history. *)
From Coq Require Import List NArith ZArith Bool Arith Lia.
From Muscle Require Import Refl.Base Refl.BaseProofs Refl.Session Refl.Server Refl.ServerProofs Refl.IsoModel Refl.IsoBase Refl.IsoFrame.
Import ListNotations.

Section Run.
Context {M : MatchOps} {L : MatchLaws M}.
Variable fx : fixes.
Hypothesis guard_on : fx_guard fx = true.

(* the number of subscription strings a command can add (the invariant bounds the per-session count below 2^31) *)
Fixpoint xcmd_budget (c : xcmd) : nat :=
  match c with
  | XBase b => cmd_budget b
  | XBatch l => (fix sum (l : list xcmd) : nat := match l with [] => 0 | c' :: r => xcmd_budget c' + sum r end) l
  | _ => 0
  end.

Fixpoint xsum (l : list xcmd) : nat := match l with [] => 0 | c' :: r => xcmd_budget c' + xsum r end.

Lemma xcmd_budget_batch : forall l, xcmd_budget (XBatch l) = xsum l.
Proof. induction l as [|c l IH]; [reflexivity|]. cbn [xsum]. rewrite <- IH. reflexivity. Qed.

Definition xev_budget (ev : xevent) : nat := match ev with XCmd _ c => xcmd_budget c | _ => 0 end.

Fixpoint xrun_budget (evs : list xevent) : nat :=
  match evs with [] => 0 | ev :: r => xev_budget ev + xrun_budget r end.

(* the one condition on a history: a session arrives under a (host, session name) pair no attached session has *)
Definition xwf_event (xs : xserver) (ev : xevent) : Prop :=
  match ev with
  | XAttach s host nm _ => forall ss, In ss (sv_sessions (xs_sv xs)) -> session_dir ss <> [host; nm]
  | _ => True
  end.

Fixpoint xwf_run (xs : xserver) (evs : list xevent) : Prop :=
  match evs with
  | [] => True
  | ev :: r => xwf_event xs ev /\ xwf_run (xstep fx xs ev) r
  end.

Lemma xhandle_inv : forall c nest xs s B, small (B + xcmd_budget c) -> inv B (xs_sv xs) ->
  inv (B + xcmd_budget c) (xs_sv (xhandle fx nest xs s c)).
Proof.
  induction c as [b|f i|q k|w k|b| |w k se|l IHl] using xcmd_ind'; intros nest xs s B HB I; cbn [xhandle];
    (destruct (get_session (xs_sv xs) s); [|apply (inv_weaken B); [lia|exact I]]); rewrite ?dispatch_sv;
    try (apply (inv_weaken B); [lia|exact I]).
  - now apply handle_inv.
  - now apply (handle_inv fx guard_on (CSetData _ _)).
  - now apply (handle_inv fx guard_on (CRemoveData _ _)).
  - rewrite xcmd_budget_batch in *. destruct (Nat.ltb _ _); [|apply (inv_weaken B); [lia|exact I]]. rewrite batch_loop.
    revert xs B HB I. induction IHl as [|c l Hc _ IHl']; intros xs B HB I; cbn [fold_left xsum] in *.
    + now rewrite Nat.add_0_r.
    + rewrite Nat.add_assoc. apply IHl'; [now rewrite <- Nat.add_assoc|].
      eapply inv_same_core; [apply push_all_core|]. apply Hc; [|exact I]. eapply small_le; [|exact HB]. lia.
Qed.

Lemma clear_ducks_inv : forall B xs, small B -> inv B (xs_sv xs) -> inv B (xs_sv (clear_ducks fx xs)).
Proof. intros B xs HB. apply clear_ducks_keeps. intros sv d. now apply detach_inv. Qed.

Lemma xstep_inv : forall ev xs B, small (B + xev_budget ev) -> inv B (xs_sv xs) -> xwf_event xs ev ->
  inv (B + xev_budget ev) (xs_sv (xstep fx xs ev)).
Proof.
  intros [s host nm bits|s|s c] xs B HB I Hwf; cbn [xstep xev_budget] in *; try rewrite Nat.add_0_r in *.
  - destruct (get_session (xs_sv xs) s) eqn:Hs; [exact I|]. cbn [xs_sv xattach]. now apply attach_inv.
  - cbn [xs_sv xdetach]. now apply detach_inv.
  - destruct (get_session (xs_sv xs) s); [|apply (inv_weaken B); [lia|exact I]].
    cbv zeta. apply clear_ducks_inv; [exact HB|]. cbn [xs_sv with_sv].
    eapply inv_same_core; [apply push_all_core|]. now apply xhandle_inv.
Qed.

Theorem xrun_inv : forall evs xs B, small (B + xrun_budget evs) -> inv B (xs_sv xs) -> xwf_run xs evs ->
  inv (B + xrun_budget evs) (xs_sv (xrun fx evs xs)).
Proof.
  induction evs as [|ev evs IH]; intros xs B HB I Hwf; cbn [xrun fold_left xrun_budget] in *.
  - now rewrite Nat.add_0_r.
  - destruct Hwf as [Hw1 Hw2]. rewrite Nat.add_assoc. apply IH; [now rewrite <- Nat.add_assoc| |exact Hw2].
    apply xstep_inv; [|exact I|exact Hw1]. eapply small_le; [|exact HB]. lia.
Qed.

(* every state reached from the empty server *)
Corollary reachable_inv : forall evs, small (xrun_budget evs) -> xwf_run empty_xserver evs ->
  inv (xrun_budget evs) (xs_sv (xrun fx evs empty_xserver)).
Proof. intros evs HB Hwf. apply (xrun_inv evs empty_xserver 0); [exact HB|apply empty_inv|exact Hwf]. Qed.

End Run.
