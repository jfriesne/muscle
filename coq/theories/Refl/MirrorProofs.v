(* Refl/MirrorProofs.v -- mirror_converges_partial: at every quiescent point of every history whose events satisfy
   ev_ok (tree changes the observer can see are announced) and ev_clean (what the observer itself may send), the
   observer's client holds exactly the foreign nodes its subscriptions select, each with the node's current payload. *)
From Coq Require Import List NArith ZArith Bool Arith Lia.
From Muscle Require Import Refl.Base Refl.BaseProofs Refl.Tree Refl.Matcher Refl.MatcherProofs Refl.Session
     Refl.Server Refl.ServerProofs Refl.Mirror Refl.MirrorBase Refl.MirrorServer Refl.MirrorSem Refl.MirrorSteps
     Refl.MirrorHandlers Refl.MirrorCmd Refl.MirrorFrame Refl.MirrorQuiet.
Import ListNotations.

Section WorldProofs.
Context {M : MatchOps} {L : MatchLaws M}.
Variable fx : fixes.
Hypothesis guard_on : fx_guard fx = true.
Hypothesis overlap_on : fx_overlap fx = true.
Hypothesis push_on : fx_push fx = true.

(* nothing pending, nothing undelivered *)
Definition quiet (sv : server) : Prop :=
  sv_dirty sv = false /\ forall ss, In ss (sv_sessions sv) -> s_pending ss = None /\ s_out ss = [].

(* nothing pending (outputs may wait for delivery) *)
Definition settled (sv : server) : Prop :=
  sv_dirty sv = false /\ forall ss, In ss (sv_sessions sv) -> s_pending ss = None.

Lemma settled_pend_ok : forall sv, settled sv -> pend_ok sv.
Proof.
  intros sv [H1 H2]. split.
  - intros ss d Hin Hp. rewrite (H2 ss Hin) in Hp. discriminate.
  - intros [ss [Hin Hp]]. now rewrite (H2 ss Hin) in Hp.
Qed.

Lemma quiet_settled : forall sv, quiet sv -> settled sv.
Proof. intros sv [H1 H2]. split; auto. intros ss Hin. now destruct (H2 ss Hin). Qed.

Lemma settled_push_all : forall sv, pend_ok sv -> settled (push_all sv).
Proof.
  intros sv Hpo. split.
  - unfold push_all. destruct (sv_dirty sv) eqn:E; auto.
  - now apply push_all_no_pending.
Qed.

Lemma quiet_clear_outs : forall sv, settled sv -> quiet (clear_outs sv).
Proof.
  intros sv [H1 H2]. split; [exact H1|]. intros ss Hin. cbn in Hin. apply in_map_iff in Hin as [x [Hx Hin]]. subst ss.
  split; [exact (H2 x Hin)|reflexivity].
Qed.

Lemma pend_ok_drop : forall sv t s, pend_ok sv ->
  pend_ok (mkServer t (filter (fun x => negb (N.eqb (s_id x) s)) (sv_sessions sv)) (sv_dirty sv)).
Proof.
  intros sv t s [H1 H2]. split; cbn [sv_sessions sv_dirty].
  - intros ss d Hin Hp. apply filter_In in Hin as [Hin _]. eauto.
  - intros [ss [Hin Hp]]. apply filter_In in Hin as [Hin _]. apply H2. eauto.
Qed.

(* Cleanup() up to the point where the subscriber marks and the session record go: the session's nodes are removed
   (and announced), then everything pending is pushed *)
Lemma detach_shape : forall sv s ss, get_session sv s = Some ss -> exists sv3,
  detach fx sv s
  = mkServer (match sv_tree sv3 with [] => [] | _ => mark_nodes fx (sv_tree sv3) (s_subs ss) s cleanup_delta end)
             (filter (fun x => negb (N.eqb (s_id x) s)) (sv_sessions sv3)) (sv_dirty sv3)
  /\ same_sess sv sv3 /\ (settled sv -> settled sv3).
Proof.
  intros sv s ss Hss. unfold detach. rewrite Hss. eexists. split; [reflexivity|].
  destruct (has_node (sv_tree sv) [s_host ss]); [|split; [reflexivity|auto]].
  set (sv1 := if has_node (sv_tree sv) (session_dir ss) then remove_subtree sv s (session_dir ss) true else sv).
  assert (F1 : node_frame s false [] sv sv1).
  { unfold sv1. destruct (has_node (sv_tree sv) (session_dir ss)); [|apply nf_refl].
    apply (nf_below _ _ [] (session_dir ss)); [reflexivity|apply (remove_subtree_nf sv s _ true)]. }
  assert (F2 : node_frame s false [] sv (if has_children (sv_tree sv1) [s_host ss] then sv1 else remove_subtree sv1 s [s_host ss] true)).
  { destruct (has_children (sv_tree sv1) [s_host ss]); [exact F1|]. eapply nf_trans; [exact F1|].
    apply (nf_below _ _ [] [s_host ss]); [reflexivity|apply (remove_subtree_nf sv1 s _ true)]. }
  split.
  - eapply same_sess_trans; [exact (nf_sess F2)|apply same_core_sess, push_all_core].
  - intros Hq. apply settled_push_all, (nf_pend F2), settled_pend_ok, Hq.
Qed.

Lemma settled_detach : forall sv s, settled sv -> settled (detach fx sv s).
Proof.
  intros sv s Hq. destruct (get_session sv s) as [ss|] eqn:Hss; [|unfold detach; now rewrite Hss].
  destruct (detach_shape sv s ss Hss) as [sv3 [-> [_ H3]]]. destruct (H3 Hq) as [Hd Hp].
  split; cbn [sv_dirty sv_sessions]; auto. intros x Hx. apply filter_In in Hx as [Hx _]. now apply Hp.
Qed.

Lemma V_settled : forall mir sv o ss q, get_session sv o = Some ss -> s_pending ss = None ->
  V mir sv o q = Some (mirror_get (apply_all mir (s_out ss)) q).
Proof. intros mir sv o ss q Hss Hp. unfold V. rewrite Hss. cbn [option_map]. unfold vm. now rewrite Hp. Qed.

Lemma get_session_clear : forall sv o, get_session (clear_outs sv) o = option_map clear_out (get_session sv o).
Proof.
  intros sv o. unfold get_session, clear_outs. cbn [sv_sessions].
  induction (sv_sessions sv) as [|x l IH]; cbn; auto.
  destruct (N.eqb (s_id x) o); auto.
Qed.

(* handing the queued Messages to the client *)
Lemma deliver_J : forall mir sv o ss, settled sv -> get_session sv o = Some ss -> J mir sv o ->
  J (apply_all mir (s_out ss)) (clear_outs sv) o.
Proof.
  intros mir sv o ss [_ Hset] Hss HJ ss' Hss' q Hown.
  rewrite get_session_clear, Hss in Hss'. cbn in Hss'. inversion Hss'; subst ss'. clear Hss'.
  assert (Hin : In ss (sv_sessions sv)) by (apply find_session_some in Hss; tauto).
  unfold V. rewrite get_session_clear, Hss. cbn [option_map]. unfold vm. cbn [clear_out s_out s_pending].
  rewrite (Hset ss Hin). cbn [apply_all fold_left].
  pose proof (HJ ss Hss q Hown) as H. rewrite (V_settled mir sv o ss q Hss (Hset ss Hin)) in H.
  inversion H as [H']. rewrite H'. reflexivity.
Qed.

Lemma settled_attach : forall sv s host nm, pend_ok sv -> settled (attach sv s host nm).
Proof.
  intros sv s host nm Hpo. destruct (attach_frame sv s host nm) as [sv2 [-> F]].
  now apply settled_push_all, (nf_pend F), pend_ok_add_session.
Qed.

Lemma pend_ok_attach : forall sv s host nm, pend_ok sv -> pend_ok (attach sv s host nm).
Proof. intros sv s host nm Hpo. now apply settled_pend_ok, settled_attach. Qed.

Lemma attach_sessions : forall sv s host nm,
  let ssn := mkSession s host nm empty_matcher default_max_items None [] in
  let sv0 := mkServer (sv_tree sv) (sv_sessions sv ++ [ssn]) (sv_dirty sv) in
  same_sess sv0 (attach sv s host nm).
Proof.
  intros sv s host nm ssn sv0. destruct (attach_frame sv s host nm) as [sv2 [-> F]].
  exact (same_sess_trans _ _ _ (nf_sess F) (same_core_sess _ _ (push_all_core sv2))).
Qed.

Lemma detach_sessions : forall sv s o ss', settled sv -> o <> s -> get_session (detach fx sv s) o = Some ss' ->
  exists ss, get_session sv o = Some ss /\ s_subs ss = s_subs ss' /\ session_dir ss = session_dir ss'.
Proof.
  intros sv s o ss' Hq Hne Hss'.
  destruct (get_session sv s) as [ss|] eqn:Hss; [|unfold detach in Hss'; rewrite Hss in Hss'; eauto].
  destruct (detach_shape sv s ss Hss) as [sv3 [E [Hs3 _]]]. rewrite E in Hss'.
  unfold get_session in Hss'. cbn [sv_sessions] in Hss'. rewrite find_session_filter in Hss' by congruence.
  exact (get_session_sess sv sv3 o ss' Hs3 Hss').
Qed.

Lemma unsub_fold_V : forall mir subs sv o,
  let sv' := fold_left (fun sv' sp => unsubscribe_one fx sv' o sp) subs sv in
  (forall q, V mir sv' o q = V mir sv o q) /\ (forall q, data_at (sv_tree sv') q = data_at (sv_tree sv) q).
Proof.
  intros mir. induction subs as [|sp subs IH]; intros sv o; cbn [fold_left]; [split; auto|].
  destruct (IH (unsubscribe_one fx sv o sp) o) as [H1 H2].
  assert (H3 : forall q, V mir (unsubscribe_one fx sv o sp) o q = V mir sv o q).
  { intros q. unfold unsubscribe_one. destruct (get_session sv o) as [ss|]; [|reflexivity].
    destruct (m_remove (s_subs ss) (fix_path sp)) as [m'|]; [|reflexivity].
    rewrite V_set_tree. apply V_upd_keep. intros x; auto. }
  split; intros q; [now rewrite H1|now rewrite H2, unsubscribe_one_data].
Qed.

Lemma unsub_entries_subset : forall subs m x,
  In x (all_entries (fold_left (fun m' sp => match m_remove m' (fix_path sp) with Some m'' => m'' | None => m' end) subs m)) ->
  In x (all_entries m).
Proof.
  induction subs as [|sp subs IH]; intros m x H; cbn [fold_left] in H; auto.
  apply IH in H. destruct (m_remove m (fix_path sp)) as [m'|] eqn:E; auto. now apply (all_entries_remove m (fix_path sp) m').
Qed.

(* what may follow an unsubscribe inside a BATCH of the observer: things that tell the observer nothing about foreign nodes *)
Fixpoint tail_cmd (c : cmd) : bool :=
  match c with
  | CUnsubscribe _ | CSetData _ _ | CRemoveData _ _ | CSetMax _ | CResetMax => true
  | CBatch l => forallb tail_cmd l
  | _ => false
  end.

Definition tail_flat (c : cmd) : bool := match c with CBatch _ => false | _ => tail_cmd c end.

Lemma handle_batch_fold : forall l nest sv s ss, get_session sv s = Some ss -> Nat.ltb nest max_batch_nest = true ->
  handle fx nest sv s (CBatch l) = fold_left (fun s' c => push_all (handle fx (S nest) s' s c)) l sv.
Proof.
  intros l nest sv s ss Hss Hlt. cbn [handle]. rewrite Hss, Hlt. clear Hss ss. revert sv.
  induction l as [|c l IH]; intros sv; cbn [fold_left]; [reflexivity|]. apply IH.
Qed.

(* What a tail command (or a run of them) of the observer o does, seen from the state sv where o's record was ss: o's
   virtual mirror stays, whatever its client holds; the payloads outside its own nodes stay; it keeps its directory and
   gains no subscription. *)
Definition tail_facts (o : sid) (B : nat) (sv : server) (ss : session) (sv' : server) : Prop :=
  pend_ok sv' /\ inv B sv' /\ (forall m q, V m sv' o q = V m sv o q)
  /\ (forall q, own_node ss q = false -> data_at (sv_tree sv') q = data_at (sv_tree sv) q)
  /\ (exists ss', get_session sv' o = Some ss' /\ session_dir ss' = session_dir ss
                  /\ forall x, In x (all_entries (s_subs ss')) -> In x (all_entries (s_subs ss))).

Lemma tail_facts_refl : forall o B sv ss, pend_ok sv -> inv B sv -> get_session sv o = Some ss -> tail_facts o B sv ss sv.
Proof. intros. split; [auto|split; [auto|split; [auto|split; [auto|]]]]. exists ss. auto. Qed.

Lemma tail_facts_trans : forall o B sv ss sv1 ss1 sv2,
  tail_facts o B sv ss sv1 -> get_session sv1 o = Some ss1 -> tail_facts o B sv1 ss1 sv2 -> tail_facts o B sv ss sv2.
Proof.
  intros o B sv ss sv1 ss1 sv2 [Hp1 [I1 [HV1 [Hd1 [x [Hx [Hdx Hsx]]]]]]] Hss1 [Hp2 [I2 [HV2 [Hd2 [y [Hy [Hdy Hsy]]]]]]].
  assert (x = ss1) by congruence. subst x.
  split; [auto|split; [auto|split; [intros m q; now rewrite HV2|split]]].
  - intros q Hq. rewrite Hd2; [now apply Hd1|]. now rewrite (own_node_dir ss1 ss q Hdx).
  - exists y. split; [auto|split; [congruence|auto]].
Qed.

Lemma tail_facts_push : forall o B sv ss sv1, tail_facts o B sv ss sv1 ->
  tail_facts o B sv ss (push_all sv1) /\ settled (push_all sv1).
Proof.
  intros o B sv ss sv1 [Hp1 [I1 [HV1 [Hd1 [x [Hx [Hdx Hsx]]]]]]].
  split; [|now apply settled_push_all].
  split; [now apply pend_ok_push_all|]. split; [eapply inv_same_core; [apply push_all_core|exact I1]|].
  split; [intros m q; now rewrite V_push_all|].
  split; [intros q Hq; destruct (push_all_core sv1) as [Ht _]; rewrite Ht; now apply Hd1|].
  destruct (get_session_sess_fwd sv1 (push_all sv1) o x (same_core_sess _ _ (push_all_core _)) Hx) as [y [Hy [Hsy Hdy]]].
  exists y. split; [auto|split; [congruence|]]. intros z Hz. apply Hsx. now rewrite <- Hsy.
Qed.

(* one tail command of the observer that is not a BATCH: its own node commands (node_frame), its own unsubscribe, and
   the two commands that change nothing but its max-items *)
Lemma tail_flat_facts : forall o c nest sv B ss, tail_flat c = true -> small B -> inv B sv -> pend_ok sv ->
  get_session sv o = Some ss -> tail_facts o B sv ss (handle fx nest sv o c).
Proof.
  intros o c nest sv B ss Ht HB I Hpo Hss.
  assert (I1 : inv B (handle fx nest sv o c)).
  { pose proof (handle_inv fx guard_on c nest sv o B) as Hi.
    assert (cmd_budget c = 0) as Hb0 by (destruct c; try discriminate; reflexivity).
    rewrite Hb0, Nat.add_0_r in Hi. now apply Hi. }
  set (P := fun sv1 => pend_ok sv1 /\ (forall m q, V m sv1 o q = V m sv o q)
              /\ (forall q, own_node ss q = false -> data_at (sv_tree sv1) q = data_at (sv_tree sv) q)
              /\ exists ss', get_session sv1 o = Some ss' /\ session_dir ss' = session_dir ss
                             /\ forall x, In x (all_entries (s_subs ss')) -> In x (all_entries (s_subs ss))).
  cut (P (handle fx nest sv o c)); [intros [H1 H2]; split; [exact H1|split; [exact I1|exact H2]]|]. clear I1.
  pose proof (find_session_some _ _ _ Hss) as [_ Hid].
  assert (Hkeep : forall sv1, same_sess sv sv1 ->
            exists ss', get_session sv1 o = Some ss' /\ session_dir ss' = session_dir ss
                        /\ forall x, In x (all_entries (s_subs ss')) -> In x (all_entries (s_subs ss))).
  { intros sv1 Hs. destruct (get_session_sess_fwd sv sv1 o ss Hs Hss) as [ss' [Ha [Hb Hc]]]. exists ss'.
    split; [auto|split; [auto|]]. intros x Hx. now rewrite <- Hb. }
  assert (Hnf : forall quiet sv1, node_frame o quiet (session_dir ss) sv sv1 -> P sv1).
  { intros quiet sv1 F. split; [exact (nf_pend F Hpo)|split; [intros m q; apply (nf_self F Hpo)|split; [|exact (Hkeep _ (nf_sess F))]]].
    intros q Hq. apply (nf_data F). now apply foreign_outside. }
  assert (Hmax : forall n, P (upd_session sv o (fun x => set_max x n))).
  { intros n. split; [apply pend_ok_upd_keep; [reflexivity|auto]|].
    split; [intros m q; apply V_upd_keep; intros x; auto|split; [intros q _; reflexivity|]].
    apply Hkeep, same_core_sess, upd_session_core. reflexivity. }
  destruct c as [flags items|qq keys|qs ks|subs|n| |gk|bl]; try discriminate; cbn [handle]; rewrite Hss.
  - (* CSetData *) exact (Hnf _ _ (set_data_items_nf items sv o ss flags Hss)).
  - (* CRemoveData *) pose proof (do_remove_data_nf fx sv ss keys qq) as F. rewrite Hid in F. exact (Hnf _ _ F).
  - (* CUnsubscribe *) destruct (unsubscribe_fold_track fx subs sv o Hpo) as [Hp1 Htr].
    split; [exact Hp1|split; [intros m q; apply (unsub_fold_V m subs sv o)|split; [intros q _; apply (unsub_fold_V [] subs sv o)|]]].
    destruct (Htr o ss Hss) as [ss' [Ha [Hb Hc]]]. rewrite N.eqb_refl in Hc. exists ss'. split; [auto|split; [auto|]].
    intros x Hx. rewrite Hc in Hx. now apply unsub_entries_subset in Hx.
  - (* CSetMax *) apply Hmax.
  - (* CResetMax *) apply Hmax.
Qed.

(* one tail command of the observer, nested BATCHes of tail commands included, with the push that follows it *)
Lemma tail_step : forall o c nest sv B ss, tail_cmd c = true -> small B -> inv B sv -> pend_ok sv ->
  get_session sv o = Some ss ->
  tail_facts o B sv ss (push_all (handle fx nest sv o c)) /\ settled (push_all (handle fx nest sv o c)).
Proof.
  intros o. induction c using cmd_ind'; intros nest sv B ss Ht HB I Hpo Hss; try discriminate;
    try (apply tail_facts_push, tail_flat_facts; auto; reflexivity).
  (* BATCH *)
  apply tail_facts_push. cbn [handle]. rewrite Hss. cbn [tail_cmd] in Ht.
  destruct (Nat.ltb nest max_batch_nest); [|now apply tail_facts_refl].
  revert sv ss I Hpo Hss Ht.
  induction H as [|c l Hc Hl IHl]; intros sv ss I Hpo Hss Ht; [now apply tail_facts_refl|].
  cbn [forallb] in Ht. apply andb_true_iff in Ht as [Ht1 Ht2].
  destruct (Hc (S nest) sv B ss Ht1 HB I Hpo Hss) as [Hf1 _].
  pose proof Hf1 as [Hp1 [I1 [_ [_ [ss1 [Hss1 _]]]]]].
  apply (tail_facts_trans o B sv ss (push_all (handle fx (S nest) sv o c)) ss1); auto.
Qed.

Lemma tail_fold : forall o l2 nest sv B ss, forallb tail_cmd l2 = true -> small B -> inv B sv -> pend_ok sv ->
  get_session sv o = Some ss ->
  let sv' := fold_left (fun s' c => push_all (handle fx nest s' o c)) l2 sv in
  tail_facts o B sv ss sv' /\ (settled sv -> settled sv').
Proof.
  intros o. induction l2 as [|c l2 IH]; intros nest sv B ss Ht HB I Hpo Hss; cbn [fold_left].
  - split; [now apply tail_facts_refl|auto].
  - cbn [forallb] in Ht. apply andb_true_iff in Ht as [Ht1 Ht2].
    destruct (tail_step o c nest sv B ss Ht1 HB I Hpo Hss) as [Hf1 Hset1].
    pose proof Hf1 as [Hp1 [I1 [_ [_ [ss1 [Hss1 _]]]]]].
    destruct (IH nest _ B ss1 Ht2 HB I1 Hp1 Hss1) as [Hf2 Hset2].
    split; [exact (tail_facts_trans o B sv ss _ ss1 _ Hf1 Hss1 Hf2)|auto].
Qed.

(* pruning with fewer subscriptions what was exact for more *)
Lemma prune_exp_with : forall (S0 S1 : matcher) q d0, wf_groups (m_groups S0) -> wf_groups (m_groups S1) ->
  (forall x, In x (all_entries S1) -> In x (all_entries S0)) ->
  match exp_with S0 q d0 with
  | Some v => if matches_path S1 q (Some v) then Some v else None
  | None => None
  end = exp_with S1 q d0.
Proof.
  intros S0 S1 q d0 H0 H1 Hsub. destruct d0 as [v|]; [|reflexivity]. unfold exp_with.
  destruct (matches_path S0 q (Some v)) eqn:E0; [reflexivity|].
  destruct (matches_path S1 q (Some v)) eqn:E1; auto.
  apply matches_path_spec in E1 as [e [He [Ha Hb]]]; auto.
  assert (matches_path S0 q (Some v) = true); [|congruence].
  apply matches_path_spec; auto. exists e. auto.
Qed.

(* the client's pruning at the end: J held at some earlier point of the command (virtual mirror, foreign data unchanged
   since, subscriptions only dropped since) *)
Lemma prune_J : forall Bm B1 mir svm sv1 o ssm ss1, inv Bm svm -> inv B1 sv1 -> settled sv1 -> mirror_ok mir ->
  get_session svm o = Some ssm -> get_session sv1 o = Some ss1 -> session_dir ss1 = session_dir ssm ->
  (forall q, V mir sv1 o q = V mir svm o q) ->
  (forall q, own_node ssm q = false -> data_at (sv_tree sv1) q = data_at (sv_tree svm) q) ->
  (forall x, In x (all_entries (s_subs ss1)) -> In x (all_entries (s_subs ssm))) ->
  J mir svm o ->
  J (filter (fun pv => matches_path (s_subs ss1) (fst pv) (Some (snd pv))) (apply_all mir (s_out ss1))) (clear_outs sv1) o.
Proof.
  intros Bm B1 mir svm sv1 o ssm ss1 Im I1 Hset Hmok Hssm Hss1 Hdir HV Hd Hsub HJ.
  assert (Hin1 : In ss1 (sv_sessions sv1)) by (apply find_session_some in Hss1; tauto).
  pose proof (proj2 Hset ss1 Hin1) as Hnp1.
  destruct (inv_subs _ _ _ I1 ss1 Hin1) as [[Hw1 _] _].
  pose proof (session_wf _ _ _ _ _ Im Hssm) as Hwm.
  intros ss' Hss' q Hown.
  rewrite get_session_clear, Hss1 in Hss'. cbn in Hss'. inversion Hss'; subst ss'. clear Hss'.
  assert (Hownm : own_node ssm q = false).
  { rewrite <- Hown. apply own_node_dir. unfold session_dir in *. cbn [clear_out s_host s_name]. congruence. }
  unfold V. rewrite get_session_clear, Hss1. cbn [option_map]. unfold vm. cbn [clear_out s_out s_pending]. rewrite Hnp1.
  cbn [apply_all fold_left]. f_equal.
  rewrite mirror_get_filter by (now apply apply_all_ok). cbn [fst snd].
  pose proof (V_settled mir sv1 o ss1 q Hss1 Hnp1) as Ha. rewrite HV, (HJ ssm Hssm q Hownm) in Ha. inversion Ha as [Ha']. clear Ha.
  rewrite !expected_exp_with. cbn [clear_out s_subs sv_tree clear_outs].
  fold (data_at (sv_tree svm) q). fold (data_at (sv_tree sv1) q). rewrite (Hd q Hownm).
  now apply prune_exp_with.
Qed.

(* the observer's unsubscribe as a Message of its own: a tail command, then the pruning *)
Lemma unsub_world_J : forall B mir sv0 o ss0 subs, small B -> inv B sv0 -> quiet sv0 ->
  get_session sv0 o = Some ss0 -> mirror_ok mir -> J mir sv0 o ->
  let sv1 := push_all (handle fx 0 sv0 o (CUnsubscribe subs)) in
  forall ss1, get_session sv1 o = Some ss1 ->
  J (filter (fun pv => matches_path (s_subs ss1) (fst pv) (Some (snd pv))) (apply_all mir (s_out ss1))) (clear_outs sv1) o.
Proof.
  intros B mir sv0 o ss0 subs HB I Hq Hss0 Hmok HJ sv1 ss1 Hss1.
  pose proof (settled_pend_ok sv0 (quiet_settled sv0 Hq)) as Hpo0.
  destruct (tail_step o (CUnsubscribe subs) 0 sv0 B ss0 eq_refl HB I Hpo0 Hss0) as [[_ [I1 [HV [Hd [x [Hx [Hdir Hsub]]]]]]] Hset].
  fold sv1 in I1, HV, Hd, Hx, Hset. assert (x = ss1) by congruence. subst x.
  apply (prune_J B B mir sv0 sv1 o ss0 ss1); auto.
Qed.

Lemma batch_budget_app : forall l1 l2, cmd_budget (CBatch (l1 ++ l2)) = cmd_budget (CBatch l1) + cmd_budget (CBatch l2).
Proof. intros l1 l2. cbn [cmd_budget]. induction l1 as [|c l1 IH]; cbn [app]; [reflexivity|]. rewrite IH. lia. Qed.

Lemma batch_depth_app_l : forall l1 l2, cmd_depth (CBatch l1) <= cmd_depth (CBatch (l1 ++ l2)).
Proof.
  intros l1 l2. cbn [cmd_depth]. apply le_n_S. induction l1 as [|c l1 IH]; cbn [app]; [lia|]. lia.
Qed.

Lemma batch_subs_ok_app_l : forall l1 l2, cmd_subs_ok (CBatch (l1 ++ l2)) -> cmd_subs_ok (CBatch l1).
Proof.
  intros l1 l2. cbn [cmd_subs_ok]. induction l1 as [|c l1 IH]; cbn [app]; [intros _; exact I|]. intros [H1 H2]. split; [exact H1|now apply IH].
Qed.

(* at a path, the Messages queued for a session either decide what the client will hold, whatever it holds now, or they
   say nothing about it *)
Lemma apply_all_shape : forall ds q,
  (exists r, forall m, mirror_get (apply_all m ds) q = r) \/ (forall m, mirror_get (apply_all m ds) q = mirror_get m q).
Proof.
  induction ds as [|d ds IH]; intros q; [right; intros m; reflexivity|].
  destruct (IH q) as [[r Hr]|Hf].
  - left. exists r. intros m. unfold apply_all in *. cbn [fold_left]. apply Hr.
  - destruct (di_lookup d q) as [r|] eqn:E.
    + left. exists r. intros m. unfold apply_all in *. cbn [fold_left]. rewrite Hf, apply_di_get, E. reflexivity.
    + right. intros m. unfold apply_all in *. cbn [fold_left]. rewrite Hf, apply_di_get, E. reflexivity.
Qed.

Lemma V_quiet : forall m sv o ss q, quiet sv -> get_session sv o = Some ss -> V m sv o q = Some (mirror_get m q).
Proof.
  intros m sv o ss q Hq Hss. assert (Hin : In ss (sv_sessions sv)) by (apply find_session_some in Hss; tauto).
  destruct (proj2 Hq ss Hin) as [Hnp Hout]. rewrite (V_settled m sv o ss q Hss Hnp), Hout. reflexivity.
Qed.

(* a session's own commands leave the payloads outside its own nodes alone *)
Lemma handle_data_foreign : forall o c nest sv ss, pend_ok sv -> get_session sv o = Some ss ->
  nest + cmd_depth c <= max_batch_nest ->
  forall q, own_node ss q = false -> data_at (sv_tree (handle fx nest sv o c)) q = data_at (sv_tree sv) q.
Proof.
  intros o. induction c using cmd_ind'; intros nest sv ss Hpo Hss Hdep qp Hown; cbn [handle]; rewrite Hss.
  - (* CSetData *) apply (nf_data (set_data_items_nf i sv o ss f Hss)). now apply foreign_outside.
  - (* CRemoveData *) apply (nf_data (do_remove_data_nf fx sv ss k q)). now apply foreign_outside.
  - (* CSubscribe *) assert (Hf : forall subs sv0, data_at (sv_tree (fold_left (fun sv' sf => subscribe_one fx sv' o sf) subs sv0)) qp = data_at (sv_tree sv0) qp).
    { induction subs as [|sf subs IH]; intros sv0; cbn [fold_left]; [reflexivity|]. rewrite IH. apply subscribe_one_data. }
    destruct q; [apply Hf|]. destruct k as [|sf0 k0]; [reflexivity|].
    destruct (do_get_data_core fx (if fx_push fx then push_all (fold_left (fun sv' sf => subscribe_one fx sv' o sf) (sf0 :: k0) sv)
                                   else fold_left (fun sv' sf => subscribe_one fx sv' o sf) (sf0 :: k0) sv) o (sf0 :: k0)) as [Ht _].
    rewrite Ht. destruct (fx_push fx); [destruct (push_all_core (fold_left (fun sv' sf => subscribe_one fx sv' o sf) (sf0 :: k0) sv)) as [Ht' _]; rewrite Ht'|]; apply Hf.
  - (* CUnsubscribe *) destruct (unsub_fold_V [] k sv o) as [_ Hd]. apply Hd.
  - (* CSetMax *) reflexivity.
  - (* CResetMax *) reflexivity.
  - (* CGetData *) destruct (do_get_data_core fx sv o k) as [Ht _]. now rewrite Ht.
  - (* CBatch *) cbn [cmd_depth] in Hdep.
    assert (Hlt : Nat.ltb nest max_batch_nest = true) by (apply Nat.ltb_lt; lia). rewrite Hlt.
    clear Hlt. revert sv ss Hpo Hss Hdep Hown.
    induction H as [|c l Hc Hl IHl]; intros sv ss Hpo Hss Hdep Hown; [reflexivity|].
    destruct (handle_track fx c (S nest) sv o Hpo) as [Hpo1 Htr]; [lia|].
    destruct (Htr o ss Hss) as [ss1 [Hss1 [Hdir1 _]]].
    set (sv1 := push_all (handle fx (S nest) sv o c)).
    destruct (get_session_sess_fwd _ sv1 o ss1 (same_core_sess _ _ (push_all_core _)) Hss1) as [ss2 [Hss2 [_ Hdir2]]].
    rewrite (IHl sv1 ss2); auto.
    + unfold sv1. destruct (push_all_core (handle fx (S nest) sv o c)) as [Ht _]. rewrite Ht. apply (Hc (S nest) sv ss); auto. lia.
    + now apply pend_ok_push_all.
    + lia.
    + rewrite <- Hown. apply own_node_dir. congruence.
Qed.

Lemma batch_depth_app_r : forall l1 l2, cmd_depth (CBatch l2) <= cmd_depth (CBatch (l1 ++ l2)).
Proof.
  intros l1 l2. cbn [cmd_depth]. apply le_n_S. induction l1 as [|c l1 IH]; cbn [app]; [lia|]. lia.
Qed.

Lemma batch_subs_ok_app_r : forall l1 l2, cmd_subs_ok (CBatch (l1 ++ l2)) -> cmd_subs_ok (CBatch l2).
Proof.
  intros l1 l2. cbn [cmd_subs_ok]. induction l1 as [|c l1 IH]; cbn [app]; [auto|]. intros [H1 H2]. now apply IH.
Qed.

Lemma tail_cmd_budget : forall c, tail_cmd c = true -> cmd_budget c = 0.
Proof.
  induction c using cmd_ind'; intros Ht; try discriminate; try reflexivity.
  cbn [tail_cmd cmd_budget] in *. induction H as [|c l Hc Hl IH]; [reflexivity|].
  cbn [forallb] in Ht. apply andb_true_iff in Ht as [H1 H2]. now rewrite (Hc H1), (IH H2).
Qed.

Lemma tail_budget : forall l, forallb tail_cmd l = true -> cmd_budget (CBatch l) = 0.
Proof. intros l H. apply (tail_cmd_budget (CBatch l)). exact H. Qed.

Lemma V_cleared : forall X sv o ss q, settled sv -> get_session sv o = Some ss ->
  V X (clear_outs sv) o q = Some (mirror_get X q).
Proof.
  intros X sv o ss q Hset Hss. assert (Hin : In ss (sv_sessions sv)) by (apply find_session_some in Hss; tauto).
  unfold V. rewrite get_session_clear, Hss. cbn [option_map]. unfold vm. cbn [clear_out s_out s_pending].
  rewrite (proj2 Hset ss Hin). reflexivity.
Qed.

(* a BATCH of the observer: unsubscribes (and other tail commands) first, then commands without unsubscribe, then tail
   commands again; the client prunes once, after the whole BATCH *)
Lemma batch_general_world_J : forall B mir sv0 o ss0 l0 l1 l2,
  small (B + cmd_budget (CBatch (l0 ++ l1 ++ l2))) -> inv B sv0 -> quiet sv0 ->
  get_session sv0 o = Some ss0 -> mirror_ok mir -> J mir sv0 o ->
  cmd_loud_for true (CBatch (l0 ++ l1 ++ l2)) = true -> cmd_depth (CBatch (l0 ++ l1 ++ l2)) <= max_batch_nest ->
  cmd_subs_ok (CBatch (l0 ++ l1 ++ l2)) ->
  forallb tail_cmd l0 = true -> forallb cmd_nounsub l1 = true -> forallb tail_cmd l2 = true ->
  cmd_covered (fst (client_cmd (s_subs ss0) (CBatch l0))) (CBatch l1) ->
  let sv1 := push_all (handle fx 0 sv0 o (CBatch (l0 ++ l1 ++ l2))) in
  forall ss1, get_session sv1 o = Some ss1 ->
  J (filter (fun pv => matches_path (s_subs ss1) (fst pv) (Some (snd pv))) (apply_all mir (s_out ss1))) (clear_outs sv1) o.
Proof.
  intros B mir sv0 o ss0 l0 l1 l2 HB I Hq Hss0 Hmok HJ Hloud Hdep Hsok Ht0 Hnu Ht2 Hcov sv1 ss1 Hss1.
  pose proof (quiet_settled sv0 Hq) as Hset0. pose proof (settled_pend_ok sv0 Hset0) as Hpo0.
  assert (Hlt : Nat.ltb 0 max_batch_nest = true) by (apply Nat.ltb_lt; cbn [cmd_depth] in Hdep; lia).
  assert (Hmax : 1 <= max_batch_nest) by (apply Nat.ltb_lt in Hlt; lia).
  unfold sv1 in *. clear sv1.
  rewrite (handle_batch_fold (l0 ++ l1 ++ l2) 0 sv0 o ss0 Hss0 Hlt), !fold_left_app in *.
  set (step := fun (s' : server) (c : cmd) => push_all (handle fx 1 s' o c)) in *.
  set (sva := fold_left step l0 sv0) in *.
  assert (HB0 : small B) by (eapply small_le; [|exact HB]; lia).
  (* ---- the head: tail commands from the quiet state *)
  destruct (tail_fold o l0 1 sv0 B ss0 Ht0 HB0 I Hpo0 Hss0) as [[Hpoa [Ia [HVa [Hda [ssa [Hssa [Hdira Hsuba]]]]]]] Hseta].
  fold step in Hpoa, Ia, HVa, Hda, Hssa, Hseta. fold sva in Hpoa, Ia, HVa, Hda, Hssa, Hseta.
  specialize (Hseta Hset0).
  (* the subscriptions after the head, as the client computes them *)
  assert (Hsa : s_subs ssa = fst (client_cmd (s_subs ss0) (CBatch l0))).
  { destruct (handle_track fx (CBatch l0) 0 sv0 o Hpo0) as [_ Htr]; [cbn [Nat.add]; pose proof (batch_depth_app_l l0 (l1 ++ l2)); lia|].
    rewrite (handle_batch_fold l0 0 sv0 o ss0 Hss0 Hlt) in Htr. fold step in Htr. fold sva in Htr.
    destruct (Htr o ss0 Hss0) as [x [Hx [_ Hy]]]. rewrite N.eqb_refl in Hy. congruence. }
  assert (Hina : In ssa (sv_sessions sva)) by (apply find_session_some in Hssa; tauto).
  destruct (inv_subs _ _ _ Ia ssa Hina) as [[Hwa _] _].
  pose proof (session_wf _ _ _ _ _ I Hss0) as Hw0.
  (* ---- the ghost mirror: what the client would hold had it pruned right after the head *)
  set (m := filter (fun pv => matches_path (s_subs ssa) (fst pv) (Some (snd pv))) mir).
  assert (Hmokm : mirror_ok m) by (now apply filter_ok_mirror).
  assert (Hm0 : forall q, own_node ss0 q = false -> mirror_get mir q = expected (sv_tree sv0) ss0 q).
  { intros q Hown. pose proof (HJ ss0 Hss0 q Hown) as H. rewrite (V_quiet mir sv0 o ss0 q Hq Hss0) in H. now inversion H. }
  assert (HJa : J m sva o).
  { intros ss Hss q Hown. assert (ss = ssa) by congruence. subst ss.
    assert (Hown0 : own_node ss0 q = false) by (rewrite <- Hown; apply own_node_dir; congruence).
    rewrite HVa, (V_quiet m sv0 o ss0 q Hq Hss0). f_equal. unfold m. rewrite mirror_get_filter by exact Hmok. cbn [fst snd].
    rewrite (Hm0 q Hown0), !expected_exp_with.
    fold (data_at (sv_tree sv0) q). fold (data_at (sv_tree sva) q). rewrite (Hda q Hown0).
    now apply prune_exp_with. }
  (* ---- the middle: commands without unsubscribe, with the ghost mirror *)
  assert (Hb3 : cmd_budget (CBatch (l0 ++ l1 ++ l2)) = cmd_budget (CBatch l1)).
  { rewrite !batch_budget_app, (tail_budget l0 Ht0), (tail_budget l2 Ht2). lia. }
  assert (HB1 : small (B + cmd_budget (CBatch l1))) by (now rewrite <- Hb3).
  assert (Hd1 : cmd_depth (CBatch l1) <= max_batch_nest).
  { pose proof (batch_depth_app_r l0 (l1 ++ l2)). pose proof (batch_depth_app_l l1 l2). lia. }
  assert (Hl1 : cmd_loud_for true (CBatch l1) = true).
  { cbn [cmd_loud_for] in *. rewrite !forallb_app in Hloud. apply andb_true_iff in Hloud as [_ H1].
    now apply andb_true_iff in H1 as [H1 _]. }
  assert (Hs1 : cmd_subs_ok (CBatch l1)).
  { apply (batch_subs_ok_app_l l1 l2). now apply (batch_subs_ok_app_r l0 (l1 ++ l2)). }
  set (svb := fold_left step l1 sva) in *.
  assert (Esvb : svb = handle fx 0 sva o (CBatch l1)) by (now rewrite (handle_batch_fold l1 0 sva o ssa Hssa Hlt)).
  destruct (handle_J fx guard_on overlap_on push_on m o (CBatch l1) 0 sva o B) as [HJb Hpob]; auto.
  { left. now rewrite N.eqb_refl. }
  { intros _. split; [exact Hnu|split; [exact Hs1|]].
    intros ss Hss. assert (ss = ssa) by congruence. subst ss. split; [apply (proj2 Hseta ssa Hina)|now rewrite Hsa]. }
  rewrite <- Esvb in HJb, Hpob.
  assert (Ib : inv (B + cmd_budget (CBatch l1)) svb) by (rewrite Esvb; now apply handle_inv).
  destruct (handle_track fx (CBatch l1) 0 sva o Hpoa) as [_ Htrb]; [cbn [Nat.add]; exact Hd1|]. rewrite <- Esvb in Htrb.
  destruct (Htrb o ssa Hssa) as [ssb [Hssb [Hdirb _]]].
  assert (Hdb : forall q, own_node ssa q = false -> data_at (sv_tree svb) q = data_at (sv_tree sva) q).
  { intros q Hown. rewrite Esvb. apply (handle_data_foreign o (CBatch l1) 0 sva ssa); auto. }
  (* ---- the tail *)
  destruct (tail_fold o l2 1 svb (B + cmd_budget (CBatch l1)) ssb Ht2 HB1 Ib Hpob Hssb)
    as [[Hpoe [Ie [HVe [Hde [sse [Hsse [Hdire Hsube]]]]]]] _].
  fold step in Hpoe, Ie, HVe, Hde, Hsse. set (sve := fold_left step l2 svb) in *.
  assert (Hset1 : settled (push_all sve)) by (now apply settled_push_all).
  destruct (get_session_sess sve (push_all sve) o ss1 (same_core_sess _ _ (push_all_core sve)) Hss1) as [sse' [Hsse' [Hsub1 Hdir1]]].
  assert (sse' = sse) by congruence. subst sse'.
  assert (I1 : inv (B + cmd_budget (CBatch l1)) (push_all sve)) by (eapply inv_same_core; [apply push_all_core|exact Ie]).
  (* the ghost client is exact after its final pruning *)
  assert (Hghost : J (filter (fun pv => matches_path (s_subs ss1) (fst pv) (Some (snd pv))) (apply_all m (s_out ss1)))
                     (clear_outs (push_all sve)) o).
  { apply (prune_J (B + cmd_budget (CBatch l1)) (B + cmd_budget (CBatch l1)) m svb (push_all sve) o ssb ss1); auto.
    - congruence.
    - intros q. now rewrite V_push_all.
    - intros q Hown. destruct (push_all_core sve) as [Ht _]. rewrite Ht. now apply Hde.
    - intros x Hx. apply Hsube. now rewrite Hsub1. }
  (* ---- the real client holds the same, path by path *)
  assert (Hin1 : In ss1 (sv_sessions (push_all sve))) by (apply find_session_some in Hss1; tauto).
  destruct (inv_subs _ _ _ I1 ss1 Hin1) as [[Hw1 _] _].
  intros ss' Hss' q Hown.
  pose proof (Hghost ss' Hss' q Hown) as Hg.
  rewrite (V_cleared (filter (fun pv => matches_path (s_subs ss1) (fst pv) (Some (snd pv))) (apply_all m (s_out ss1)))
             (push_all sve) o ss1 q Hset1 Hss1) in Hg.
  rewrite (V_cleared (filter (fun pv => matches_path (s_subs ss1) (fst pv) (Some (snd pv))) (apply_all mir (s_out ss1)))
             (push_all sve) o ss1 q Hset1 Hss1).
  rewrite <- Hg. f_equal.
  rewrite get_session_clear, Hss1 in Hss'. cbn in Hss'. inversion Hss'; subst ss'. clear Hss'.
  rewrite !mirror_get_filter by (now apply apply_all_ok). cbn [fst snd].
  destruct (apply_all_shape (s_out ss1) q) as [[r Hr]|Hf]; [now rewrite !Hr|].
  rewrite !Hf. unfold m at 1. rewrite mirror_get_filter by exact Hmok. cbn [fst snd].
  destruct (mirror_get mir q) as [v|] eqn:Emq; [|reflexivity].
  destruct (matches_path (s_subs ssa) q (Some v)) eqn:Ea; [reflexivity|].
  (* held since before the BATCH, dropped by the head's unsubscribe: its payload is still the node's, and the final
     subscriptions do not select it, or the ghost would hold it *)
  assert (Hown1 : own_node ss1 q = false).
  { rewrite <- Hown. apply own_node_dir. unfold session_dir. reflexivity. }
  assert (Hownb : own_node ssb q = false) by (rewrite <- Hown1; apply own_node_dir; congruence).
  assert (Howna : own_node ssa q = false) by (rewrite <- Hownb; apply own_node_dir; congruence).
  assert (Hown0 : own_node ss0 q = false) by (rewrite <- Howna; apply own_node_dir; congruence).
  assert (Hd0 : data_at (sv_tree sv0) q = Some v).
  { pose proof (Hm0 q Hown0) as H. rewrite Emq, expected_exp_with in H. fold (data_at (sv_tree sv0) q) in H.
    destruct (data_at (sv_tree sv0) q) as [v'|]; [|discriminate]. unfold exp_with in H.
    destruct (matches_path (s_subs ss0) q (Some v')); congruence. }
  assert (Hd1' : data_at (sv_tree (push_all sve)) q = Some v).
  { destruct (push_all_core sve) as [Ht _]. rewrite Ht, (Hde q Hownb), (Hdb q Howna), (Hda q Hown0). exact Hd0. }
  (* the ghost holds nothing at q *)
  rewrite !mirror_get_filter in Hg by (now apply apply_all_ok). cbn [fst snd] in Hg. rewrite Hf in Hg.
  unfold m in Hg at 1. rewrite mirror_get_filter in Hg by exact Hmok. cbn [fst snd] in Hg. rewrite Emq, Ea in Hg.
  rewrite expected_exp_with in Hg. cbn [clear_outs sv_tree clear_out s_subs] in Hg.
  fold (data_at (sv_tree (push_all sve)) q) in Hg. rewrite Hd1' in Hg. unfold exp_with in Hg.
  destruct (matches_path (s_subs ss1) q (Some v)); [inversion Hg|reflexivity].
Qed.

Lemma batch_tail_world_J : forall B mir sv0 o ss0 l1 l2, small (B + cmd_budget (CBatch (l1 ++ l2))) -> inv B sv0 -> quiet sv0 ->
  get_session sv0 o = Some ss0 -> mirror_ok mir -> J mir sv0 o ->
  cmd_loud_for true (CBatch (l1 ++ l2)) = true -> cmd_depth (CBatch (l1 ++ l2)) <= max_batch_nest ->
  cmd_subs_ok (CBatch (l1 ++ l2)) -> forallb cmd_nounsub l1 = true -> forallb tail_cmd l2 = true ->
  cmd_covered (s_subs ss0) (CBatch l1) ->
  let sv1 := push_all (handle fx 0 sv0 o (CBatch (l1 ++ l2))) in
  forall ss1, get_session sv1 o = Some ss1 ->
  J (filter (fun pv => matches_path (s_subs ss1) (fst pv) (Some (snd pv))) (apply_all mir (s_out ss1))) (clear_outs sv1) o.
Proof.
  intros B mir sv0 o ss0 l1 l2 HB I Hq Hss0 Hmok HJ Hloud Hdep Hsok Hnu Htl Hcov.
  now apply (batch_general_world_J B mir sv0 o ss0 [] l1 l2).
Qed.

Record winv (B : nat) (w : world) : Prop := mkW {
  wi_inv : inv B (w_srv w);
  wi_quiet : quiet (w_srv w);
  wi_has : forall c, In c (w_clients w) -> exists ss, get_session (w_srv w) (c_id c) = Some ss /\ c_subs c = s_subs ss;
  wi_mok : forall c, In c (w_clients w) -> mirror_ok (c_mirror c)
}.

Definition wJ (w : world) (o : sid) : Prop :=
  forall c, In c (w_clients w) -> c_id c = o -> J (c_mirror c) (w_srv w) o.

Lemma clear_outs_core : forall sv, same_core sv (clear_outs sv).
Proof.
  intros sv. split; [reflexivity|]. cbn [sv_sessions clear_outs]. rewrite map_map. apply map_ext. intros x. reflexivity.
Qed.

(* the common last part of a world step: deliver, then forget what was delivered *)
Lemma finish_winv : forall B sv1 (cl0 : list client) last,
  inv B sv1 -> settled sv1 ->
  (forall c, In c cl0 -> mirror_ok (c_mirror c)) ->
  (forall c, In c cl0 -> exists ss, get_session sv1 (c_id c) = Some ss /\ c_subs c = s_subs ss) ->
  winv B (mkWorld (clear_outs sv1) (map (deliver sv1) cl0) last).
Proof.
  intros B sv1 cl0 last I Hset Hmok Hhas. constructor; cbn [w_srv w_clients].
  - eapply inv_same_core; [apply clear_outs_core|exact I].
  - now apply quiet_clear_outs.
  - intros c' Hc'. apply in_map_iff in Hc' as [c [Hc1 Hc2]]. subst c'.
    destruct (Hhas c Hc2) as [ss [Hss Hsub]]. unfold deliver. rewrite Hss. cbn [c_id c_subs].
    exists (clear_out ss). rewrite get_session_clear, Hss. split; [reflexivity|exact Hsub].
  - intros c' Hc'. apply in_map_iff in Hc' as [c [Hc1 Hc2]]. subst c'. unfold deliver.
    destruct (get_session sv1 (c_id c)); cbn [c_mirror]; [apply apply_all_ok|]; now apply Hmok.
Qed.

Lemma finish_wJ : forall sv1 (cl0 : list client) last o,
  settled sv1 ->
  (forall c, In c cl0 -> c_id c = o -> (exists ss, get_session sv1 o = Some ss) /\ J (c_mirror c) sv1 o) ->
  wJ (mkWorld (clear_outs sv1) (map (deliver sv1) cl0) last) o.
Proof.
  intros sv1 cl0 last o Hset HJ c' Hc' Hid. cbn [w_srv w_clients] in *. apply in_map_iff in Hc' as [c [Hc1 Hc2]]. subst c'.
  assert (Hidc : c_id c = o) by (unfold deliver in Hid; destruct (get_session sv1 (c_id c)); exact Hid).
  destruct (HJ c Hc2 Hidc) as [[ss Hss] HJc]. unfold deliver. rewrite Hidc, Hss. cbn [c_mirror].
  now apply deliver_J.
Qed.

(* what may be quiet in the state [w]: cmd_loud_for (everything that changes the tree is announced; the observer's own
   SUBSCRIBE: asks for its initial values) -- or anything at all, from a session other than the observer below whose session
   node none of the observer's subscription paths reaches (quiet_frame); and the server's BATCH nesting limit *)
Definition ev_ok (o : sid) (w : world) (ev : event) : Prop :=
  match ev with
  | ECmd b c =>
    (cmd_loud_for (N.eqb b o) c = true \/
     (b <> o /\ forall so sb, get_session (w_srv w) o = Some so -> get_session (w_srv w) b = Some sb ->
                              hidden_data (all_entries (s_subs so)) (session_dir sb)))
    /\ cmd_depth c <= max_batch_nest
  | _ => True
  end.

(* what the observer itself may send in the state [w]: well-formed SUBSCRIBE: field lists, and
   - a command without unsubscribe whose explicit GETDATA keys are subscriptions it holds at that moment, or
   - an unsubscribe as a Message of its own, or
   - a BATCH with an unsubscribe of the shape  head ++ middle ++ tail : head and tail hold unsubscribes (and own SETDATA /
     REMOVEDATA / max-items changes) only, the middle no unsubscribe (its GETDATA keys are subscriptions held after the
     head).  So "unsubscribe the old, subscribe the new" and "subscribe the new, unsubscribe the old" are both fine; what is
     left out is a SUBSCRIBE: / GETDATA between two unsubscribes of one BATCH *)
Definition ev_clean (o : sid) (w : world) (ev : event) : Prop :=
  match ev with
  | ECmd b c => b = o -> cmd_subs_ok c /\
                ((cmd_nounsub c = true /\ forall ss, get_session (w_srv w) o = Some ss -> cmd_covered (s_subs ss) c)
                 \/ (exists subs, c = CUnsubscribe subs)
                 \/ (exists l0 l1 l2, c = CBatch (l0 ++ l1 ++ l2) /\ snd (client_cmd empty_matcher c) = true /\
                        forallb tail_cmd l0 = true /\ forallb cmd_nounsub l1 = true /\ forallb tail_cmd l2 = true /\
                        forall ss, get_session (w_srv w) o = Some ss ->
                                   cmd_covered (fst (client_cmd (s_subs ss) (CBatch l0))) (CBatch l1)))
  | _ => True
  end.

Lemma deliver_id : forall sv (c : client), c_id (deliver sv c) = c_id c.
Proof. intros sv c. unfold deliver. destruct (get_session sv (c_id c)); reflexivity. Qed.

Lemma detach_sessions_fwd : forall sv s o ss, settled sv -> o <> s -> get_session sv o = Some ss ->
  exists ss', get_session (detach fx sv s) o = Some ss' /\ s_subs ss' = s_subs ss.
Proof.
  intros sv s o ss Hq Hne Hss.
  destruct (get_session sv s) as [sd|] eqn:Hsd; [|unfold detach; rewrite Hsd; eauto].
  destruct (detach_shape sv s sd Hsd) as [sv3 [-> [Hs3 _]]].
  unfold get_session. cbn [sv_sessions]. rewrite find_session_filter by congruence.
  destruct (get_session_sess_fwd sv sv3 o ss Hs3 Hss) as [ss' [H1 [H2 _]]]. eauto.
Qed.

Lemma quiet_out : forall sv ss, quiet sv -> In ss (sv_sessions sv) -> s_out ss = [].
Proof. intros sv ss [_ H] Hin. now destruct (H ss Hin). Qed.

Lemma world_attach : forall B w s host nm o, small B -> winv B w -> wJ w o ->
  wf_event (w_srv w) (EAttach s host nm) ->
  winv B (world_step fx w (EAttach s host nm)) /\ wJ (world_step fx w (EAttach s host nm)) o.
Proof.
  intros B w s host nm o HB [I Hq Hhas Hmok] HJ Hwf. cbn [wf_event] in Hwf.
  pose proof (quiet_settled _ Hq) as Hset0. pose proof (settled_pend_ok _ Hset0) as Hpo0.
  unfold world_step. cbn [step].
  destruct (get_session (w_srv w) s) as [sx|] eqn:Hs.
  - (* the id is taken: nothing happens *)
    split.
    + apply finish_winv; auto.
    + apply finish_wJ; auto. intros c Hc Hid. split; [|now apply HJ].
      destruct (Hhas c Hc) as [ss [Hss _]]. rewrite Hid in Hss. eauto.
  - set (ssn := mkSession s host nm empty_matcher default_max_items None []).
    set (sv0 := mkServer (sv_tree (w_srv w)) (sv_sessions (w_srv w) ++ [ssn]) (sv_dirty (w_srv w))).
    pose proof (attach_sessions (w_srv w) s host nm) as Hsess. fold ssn in Hsess. fold sv0 in Hsess. cbv zeta in Hsess.
    assert (Hold : forall o' ss, get_session (w_srv w) o' = Some ss ->
              exists ss', get_session (attach (w_srv w) s host nm) o' = Some ss' /\ s_subs ss' = s_subs ss).
    { intros o' ss Hss. assert (H0 : get_session sv0 o' = Some ss).
      { unfold get_session in *. cbn [sv_sessions sv0]. now rewrite find_session_app, Hss. }
      destruct (get_session_sess_fwd sv0 _ o' ss Hsess H0) as [ss' [H1 [H2 _]]]. eauto. }
    assert (Hnew : exists ss', get_session (attach (w_srv w) s host nm) s = Some ss' /\ s_subs ss' = empty_matcher).
    { assert (H0 : get_session sv0 s = Some ssn).
      { unfold get_session in *. cbn [sv_sessions sv0]. rewrite find_session_app, Hs. cbn [s_id ssn]. now rewrite N.eqb_refl. }
      destruct (get_session_sess_fwd sv0 _ s ssn Hsess H0) as [ss' [H1 [H2 _]]]. eauto. }
    split.
    + apply finish_winv.
      * now apply attach_inv.
      * now apply settled_attach.
      * intros c Hc. apply in_app_or in Hc as [Hc|[Hc|[]]]; [now apply Hmok|subst c; constructor].
      * intros c Hc. apply in_app_or in Hc as [Hc|[Hc|[]]].
        -- destruct (Hhas c Hc) as [ss [Hss Hsub]]. destruct (Hold _ ss Hss) as [ss' [H1 H2]]. exists ss'. split; [auto|congruence].
        -- subst c. cbn [c_id c_subs]. destruct Hnew as [ss' [H1 H2]]. exists ss'. split; [auto|congruence].
    + apply finish_wJ; [now apply settled_attach|].
      intros c Hc Hid. apply in_app_or in Hc as [Hc|[Hc|[]]].
      * destruct (Hhas c Hc) as [ss [Hss _]]. rewrite Hid in Hss.
        assert (Hne : o <> s) by (intros E; subst o; congruence).
        split; [destruct (Hold o ss Hss) as [ss' [H1 _]]; eauto|].
        apply (attach_J (c_mirror c) B); auto.
      * subst c. cbn [c_id c_mirror] in *. subst o. split; [destruct Hnew as [ss' [H1 _]]; eauto|].
        now apply attach_J_new.
Qed.

Lemma filter_deliver : forall sv s (l : list client),
  filter (fun x => negb (N.eqb (c_id x) s)) (map (deliver sv) l)
  = map (deliver sv) (filter (fun x => negb (N.eqb (c_id x) s)) l).
Proof.
  intros sv s. induction l as [|c l IH]; cbn [map filter]; auto. rewrite deliver_id.
  destruct (negb (N.eqb (c_id c) s)); cbn [map]; now rewrite IH.
Qed.

Lemma world_detach : forall B w s o, small B -> winv B w -> wJ w o ->
  winv B (world_step fx w (EDetach s)) /\ wJ (world_step fx w (EDetach s)) o.
Proof.
  intros B w s o HB [I Hq Hhas Hmok] HJ.
  pose proof (quiet_settled _ Hq) as Hset0. pose proof (settled_pend_ok _ Hset0) as Hpo0.
  unfold world_step. cbn [step].
  set (sv1 := detach fx (w_srv w) s).
  rewrite filter_deliver. split.
  - apply finish_winv.
    + now apply (detach_inv fx guard_on).
    + now apply settled_detach.
    + intros c Hc. apply filter_In in Hc as [Hc _]. now apply Hmok.
    + intros c Hc. apply filter_In in Hc as [Hc Hne]. apply negb_true_iff, N.eqb_neq in Hne.
      destruct (Hhas c Hc) as [ss [Hss Hsub]].
      destruct (detach_sessions_fwd (w_srv w) s (c_id c) ss Hset0 Hne Hss) as [ss' [H1 H2]].
      exists ss'. split; [auto|congruence].
  - apply finish_wJ; [now apply settled_detach|].
    intros c Hc Hid. apply filter_In in Hc as [Hc Hne]. apply negb_true_iff, N.eqb_neq in Hne. rewrite Hid in Hne.
    destruct (Hhas c Hc) as [ss [Hss _]]. rewrite Hid in Hss.
    split; [destruct (detach_sessions_fwd (w_srv w) s o ss Hset0 Hne Hss) as [ss' [H1 _]]; eauto|].
    apply (detach_J fx (c_mirror c) B); auto.
Qed.

Lemma snd_client_unsub : forall m subs, snd (client_cmd m (CUnsubscribe subs)) = true.
Proof. reflexivity. Qed.

Lemma world_cmd : forall B w b c0 o, small (B + cmd_budget c0) -> winv B w -> wJ w o ->
  ev_ok o w (ECmd b c0) -> ev_clean o w (ECmd b c0) ->
  winv (B + cmd_budget c0) (world_step fx w (ECmd b c0)) /\ wJ (world_step fx w (ECmd b c0)) o.
Proof.
  intros B w b c0 o HB [I Hq Hhas Hmok] HJ [Hloud Hdepth] Hclean. cbn [ev_clean] in Hclean.
  pose proof (quiet_settled _ Hq) as Hset0. pose proof (settled_pend_ok _ Hset0) as Hpo0.
  unfold world_step. cbn [step].
  destruct (get_session (w_srv w) b) as [bs|] eqn:Hb.
  2:{ split.
      - apply finish_winv; auto. apply (inv_weaken B); auto. lia.
      - apply finish_wJ; auto. intros c Hc Hid. split; [|now apply HJ].
        destruct (Hhas c Hc) as [ss [Hss _]]. rewrite Hid in Hss. eauto. }
  set (hd := handle fx 0 (w_srv w) b c0).
  destruct (handle_track fx c0 0 (w_srv w) b Hpo0) as [Hpoh Htr]; [cbn [Nat.add]; exact Hdepth|]. fold hd in Hpoh, Htr.
  set (sv1 := push_all hd).
  assert (I1 : inv (B + cmd_budget c0) sv1).
  { eapply inv_same_core; [apply push_all_core|]. now apply handle_inv. }
  assert (Hset1 : settled sv1) by (now apply settled_push_all).
  set (upd := fun x : client => if N.eqb (c_id x) b then mkClient (c_id x) (c_mirror x) (fst (client_cmd (c_subs x) c0)) else x).
  assert (Hupd_id : forall x, c_id (upd x) = c_id x) by (intros x; unfold upd; destruct (N.eqb (c_id x) b); reflexivity).
  assert (Hupd_mir : forall x, c_mirror (upd x) = c_mirror x) by (intros x; unfold upd; destruct (N.eqb (c_id x) b); reflexivity).
  (* every client's record of its subscriptions is still the server's *)
  assert (Hhas1 : forall c, In c (w_clients w) ->
            exists ss1, get_session sv1 (c_id c) = Some ss1 /\ c_subs (upd c) = s_subs ss1).
  { intros c Hc. destruct (Hhas c Hc) as [ss [Hss Hsub]].
    destruct (Htr (c_id c) ss Hss) as [ssh [Hssh [_ Hsubh]]].
    destruct (get_session_sess_fwd hd sv1 (c_id c) ssh (same_core_sess _ _ (push_all_core hd)) Hssh) as [ss1 [Hss1 [Hsub1 _]]].
    exists ss1. split; [auto|]. rewrite Hsub1, Hsubh. unfold upd. rewrite (N.eqb_sym b (c_id c)).
    destruct (N.eqb (c_id c) b); cbn [c_subs]; congruence. }
  assert (HW1 : winv (B + cmd_budget c0)
                  (mkWorld (clear_outs sv1) (map (deliver sv1) (map upd (w_clients w)))
                           (map (fun ss => (s_id ss, s_out ss)) (sv_sessions sv1)))).
  { apply finish_winv; auto.
    - intros c' Hc'. apply in_map_iff in Hc' as [c [H1 H2]]. subst c'. rewrite Hupd_mir. now apply Hmok.
    - intros c' Hc'. apply in_map_iff in Hc' as [c [H1 H2]]. subst c'. rewrite Hupd_id. now apply Hhas1. }
  (* J for the observer's clients, before any pruning, whenever the command is not the observer's unsubscribe *)
  assert (HJ1 : (b = o -> cmd_nounsub c0 = true /\ forall ss, get_session (w_srv w) o = Some ss -> cmd_covered (s_subs ss) c0) ->
            forall c, In c (w_clients w) -> c_id c = o ->
            (exists ss, get_session sv1 o = Some ss) /\ J (c_mirror c) sv1 o).
  { intros Hpl c Hc Hid. destruct (Hhas1 c Hc) as [ss1 [Hss1 _]]. rewrite Hid in Hss1. split; [eauto|].
    apply J_push_all. apply (handle_J fx guard_on overlap_on push_on (c_mirror c) o c0 0 (w_srv w) b B); auto.
    { destruct Hloud as [Hl|[Hne Hh]]; [now left|right]. split; [auto|].
      destruct (Hhas c Hc) as [so [Hso _]]. rewrite Hid in Hso. exists so, bs. split; [auto|split; [auto|]]. now apply Hh. }
    intros E. destruct (Hclean E) as [Hs _]. destruct (Hpl E) as [Hp1 Hp2]. split; [auto|split; [auto|]].
    intros ss Hss. split; [|now apply Hp2].
    destruct Hq as [_ Hq2]. apply (Hq2 ss). apply find_session_some in Hss. tauto. }
  destruct (snd (client_cmd empty_matcher c0)) eqn:Hflag.
  - (* some unsubscribe in the command: its sender prunes *)
    set (pr := fun x : client => if N.eqb (c_id x) b then prune x else x).
    assert (Hpr_id : forall x, c_id (pr x) = c_id x) by (intros x; unfold pr; destruct (N.eqb (c_id x) b); reflexivity).
    split.
    + destruct HW1 as [W1 W2 W3 W4]. constructor; cbn [w_srv w_clients] in *; auto.
      * intros c' Hc'. apply in_map_iff in Hc' as [c [H1 H2]]. subst c'. rewrite Hpr_id.
        destruct (W3 c H2) as [ss [Hss Hsub]]. exists ss. split; auto.
        unfold pr. destruct (N.eqb (c_id c) b); auto.
      * intros c' Hc'. apply in_map_iff in Hc' as [c [H1 H2]]. subst c'. unfold pr.
        destruct (N.eqb (c_id c) b); [|now apply W4]. unfold prune. cbn [c_mirror]. apply filter_ok_mirror. now apply W4.
    + intros c'' Hc'' Hid. cbn [w_srv w_clients] in *.
      apply in_map_iff in Hc'' as [c' [H1 H2]]. subst c''. rewrite Hpr_id in Hid.
      apply in_map_iff in H2 as [cu [H3 H4]]. subst c'. rewrite deliver_id in Hid.
      apply in_map_iff in H4 as [c [H5 H6]]. subst cu. rewrite Hupd_id in Hid.
      unfold pr. rewrite deliver_id, Hupd_id.
      destruct (N.eqb (c_id c) b) eqn:Eb.
      * (* the observer's own command: it must be its unsubscribe *)
        apply N.eqb_eq in Eb. assert (Ebo : b = o) by congruence.
        destruct (Hhas1 c H6) as [ss1 [Hss1 Hsub1]]. destruct (Hhas c H6) as [ss0 [Hss0 Hsub0]].
        unfold prune, deliver. rewrite Hupd_id, Hss1. cbn [c_mirror c_subs c_id]. rewrite Hupd_mir, Hsub1.
        rewrite Hid in Hss0, Hss1. unfold sv1, hd in *. rewrite Ebo in *.
        destruct (Hclean eq_refl) as [Hsok [Hpl|[[subs Hun]|[l0 [l1 [l2 [Hun [_ [Ht0 [Hnu [Htl Hcov]]]]]]]]]]]; [|subst c0..].
        { rewrite (nounsub_no_unsub c0 empty_matcher (proj1 Hpl)) in Hflag. discriminate. }
        { apply (unsub_world_J B (c_mirror c) (w_srv w) o ss0 subs); auto;
            try (cbn [cmd_budget] in HB; rewrite Nat.add_0_r in HB; exact HB); try (apply HJ; auto). }
        apply (batch_general_world_J B (c_mirror c) (w_srv w) o ss0 l0 l1 l2); auto; try (apply HJ; auto).
        destruct Hloud as [Hl|[Hne _]]; [|congruence]. now rewrite N.eqb_refl in Hl.
      * (* somebody else's client is pruned, not this one *)
        apply N.eqb_neq in Eb.
        assert (Hne : b = o -> cmd_nounsub c0 = true /\ forall ss, get_session (w_srv w) o = Some ss -> cmd_covered (s_subs ss) c0) by (intros E; congruence).
        destruct (HJ1 Hne c H6 Hid) as [[ss Hss] HJc].
        unfold deliver. rewrite Hupd_id, Hid, Hss. cbn [c_mirror]. rewrite Hupd_mir. now apply deliver_J.
  - split; [exact HW1|].
    apply finish_wJ; auto. intros c' Hc' Hid. apply in_map_iff in Hc' as [c [H1 H2]]. subst c'.
    rewrite Hupd_id in Hid. rewrite Hupd_mir. apply HJ1; auto.
    intros E. destruct (Hclean E) as [_ [Hpl|[[subs Hun]|[l0 [l1 [l2 [Hun [Hfl _]]]]]]]]; auto.
    + subst c0. cbn in Hflag. discriminate.
    + congruence.
Qed.

Lemma world_step_ok : forall B w ev o, small (B + ev_budget ev) -> winv B w -> wJ w o ->
  wf_event (w_srv w) ev -> ev_ok o w ev -> ev_clean o w ev ->
  winv (B + ev_budget ev) (world_step fx w ev) /\ wJ (world_step fx w ev) o.
Proof.
  intros B w [s host nm|s|b c] o HB HW HJ Hwf Hok Hcl; cbn [ev_budget] in *; try rewrite Nat.add_0_r in *.
  - now apply world_attach.
  - now apply world_detach.
  - now apply world_cmd.
Qed.

(* the history condition of refcount_inv, read along the world's run (delivery does not touch what it looks at) *)
Fixpoint wf_wrun (w : world) (evs : list event) : Prop :=
  match evs with
  | [] => True
  | ev :: r => wf_event (w_srv w) ev /\ wf_wrun (world_step fx w ev) r
  end.

(* the conditions on quiet flags (ev_ok) and on the observer's own commands (ev_clean), read along the run *)
Fixpoint ok_wrun (o : sid) (w : world) (evs : list event) : Prop :=
  match evs with
  | [] => True
  | ev :: r => ev_ok o w ev /\ ev_clean o w ev /\ ok_wrun o (world_step fx w ev) r
  end.

Theorem world_run_ok : forall evs B w o, small (B + run_budget evs) -> winv B w -> wJ w o ->
  wf_wrun w evs -> ok_wrun o w evs ->
  winv (B + run_budget evs) (world_run fx evs w) /\ wJ (world_run fx evs w) o.
Proof.
  induction evs as [|ev evs IH]; intros B w o HB HW HJ Hwf Hok; cbn [world_run fold_left run_budget] in *.
  - rewrite Nat.add_0_r. auto.
  - destruct Hwf as [Hw1 Hw2]. destruct Hok as [Hok1 [Hcl1 Hok2]].
    destruct (world_step_ok B w ev o) as [HW1 HJ1]; auto.
    { eapply small_le; [|exact HB]. lia. }
    rewrite Nat.add_assoc. apply IH; auto. now rewrite <- Nat.add_assoc.
Qed.

Lemma empty_winv : winv 0 empty_world.
Proof.
  constructor; cbn.
  - apply empty_inv.
  - split; [reflexivity|intros ss []].
  - intros c [].
  - intros c [].
Qed.

(* mirror_converges_partial.  For every finite history by any number of sessions that come and go in which, read along
   the run, every event is ev_ok for o (a quiet flag only on o's own SETDATA / REMOVEDATA, on another session's SUBSCRIBE:,
   or on commands of a session below whose node none of o's subscription paths reaches; batches nested less than the
   server's limit) and ev_clean for o (well-formed SUBSCRIBE: field lists; explicit GETDATA only for subscriptions held;
   unsubscribes alone or at the head / in the tail of a BATCH): at the quiescent point after the history the client of o
   holds, at every path that is not its own node, exactly what its subscriptions (paths and filters) select of the true
   tree -- the node's current payload if some subscription accepts it, nothing otherwise. *)
Theorem mirror_converges_partial : forall evs o,
  wf_wrun empty_world evs -> ok_wrun o empty_world evs -> small (run_budget evs) ->
  forall c ss, In c (w_clients (world_run fx evs empty_world)) -> c_id c = o ->
  get_session (w_srv (world_run fx evs empty_world)) o = Some ss ->
  forall q, own_node ss q = false ->
  mirror_get (c_mirror c) q = expected (sv_tree (w_srv (world_run fx evs empty_world))) ss q.
Proof.
  intros evs o Hwf Hok Hsm c ss Hc Hid Hss q Hown.
  destruct (world_run_ok evs 0 empty_world o Hsm empty_winv) as [HW HJ]; auto.
  { intros c0 []. }
  cbn [Nat.add] in HW. destruct HW as [_ Hq _ _].
  pose proof (HJ c Hc Hid ss Hss q Hown) as H.
  assert (Hin : In ss (sv_sessions (w_srv (world_run fx evs empty_world)))) by (apply find_session_some in Hss; tauto).
  destruct (proj2 Hq ss Hin) as [Hnp Hout].
  rewrite (V_settled (c_mirror c) _ o ss q Hss Hnp), Hout in H. cbn [apply_all fold_left] in H. now inversion H.
Qed.

End WorldProofs.
