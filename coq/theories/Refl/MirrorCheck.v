(* Refl/MirrorCheck.v -- boolean tests of the premises of mirror_converges_partial, for examples and witnesses. *)
From Coq Require Import List NArith ZArith Bool Arith Lia.
From Muscle Require Import Refl.Base Refl.BaseProofs Refl.Matcher Refl.Server Refl.ServerProofs Refl.RefcountProofs
     Refl.Mirror Refl.MirrorSubscribe Refl.MirrorCmd Refl.MirrorFrame Refl.MirrorProofs.
Import ListNotations.

Section Check.
Context {M : MatchOps} {L : MatchLaws M}.
Variable fx : fixes.

Fixpoint nodup_b (l : list pat) : bool :=
  match l with [] => true | p :: r => negb (existsb (pat_eqb p) r) && nodup_b r end.

Lemma nodup_b_spec : forall l, nodup_b l = true -> NoDup l.
Proof.
  induction l as [|p l IH]; intros H; [constructor|]. cbn in H. apply andb_true_iff in H as [H1 H2].
  constructor; [|now apply IH]. intros Hin. apply negb_true_iff in H1.
  assert (existsb (pat_eqb p) l = true); [|congruence]. apply existsb_exists. exists p. split; auto. apply pat_eqb_refl.
Qed.

Fixpoint cmd_subs_ok_b (c : cmd) : bool :=
  match c with
  | CSubscribe _ subs => nodup_b (fixed subs) && forallb (fun p => match p with [] => false | _ => true end) (fixed subs)
  | CBatch l => forallb cmd_subs_ok_b l
  | _ => true
  end.

Lemma cmd_subs_ok_b_spec : forall c, cmd_subs_ok_b c = true -> cmd_subs_ok c.
Proof.
  induction c using cmd_ind'; intros Hb; cbn [cmd_subs_ok cmd_subs_ok_b] in *; try exact I.
  - apply andb_true_iff in Hb as [H1 H2]. split; [now apply nodup_b_spec|].
    intros p Hp. rewrite forallb_forall in H2. specialize (H2 p Hp). destruct p; discriminate.
  - revert Hb. induction H as [|c l Hc Hl IHl]; intros Hb; [exact I|].
    cbn [forallb] in Hb. apply andb_true_iff in Hb as [H1 H2]. split; [now apply Hc|now apply IHl].
Qed.

Definition is_unsub (c : cmd) : bool := match c with CUnsubscribe _ => true | _ => false end.

Definition ev_ok_b (o : sid) (ev : event) : bool :=
  match ev with ECmd b c => cmd_loud_for (N.eqb b o) c && Nat.leb (cmd_depth c) max_batch_nest | _ => true end.

(* splitting a BATCH: the longest prefix of tail commands, then the longest prefix of plain commands, and the rest *)
Fixpoint take_b (f : cmd -> bool) (l : list cmd) : list cmd :=
  match l with [] => [] | c :: r => if f c then c :: take_b f r else [] end.
Fixpoint drop_b (f : cmd -> bool) (l : list cmd) : list cmd :=
  match l with [] => [] | c :: r => if f c then drop_b f r else l end.

Lemma take_drop_b : forall f l, l = take_b f l ++ drop_b f l.
Proof. intros f. induction l as [|c l IH]; cbn; [reflexivity|]. destruct (f c); cbn; [now rewrite <- IH|reflexivity]. Qed.

Lemma take_b_all : forall f l, forallb f (take_b f l) = true.
Proof. intros f. induction l as [|c l IH]; cbn; [reflexivity|]. destruct (f c) eqn:E; cbn; [now rewrite E|reflexivity]. Qed.

(* BATCH: tail commands, then plain commands, then tail commands; an unsubscribe among them *)
Definition batch_tail_b (c : cmd) : bool :=
  match c with
  | CBatch l => forallb tail_cmd (drop_b cmd_plain (drop_b tail_cmd l)) && snd (client_cmd empty_matcher c)
  | _ => false
  end.

(* a sufficient test of ev_clean that does not look at the state: no explicit GETDATA at all (cmd_covered itself compares
   filters, which MatchOps does not make decidable) *)
Definition ev_clean_b (o : sid) (ev : event) : bool :=
  match ev with
  | ECmd b c => if N.eqb b o then cmd_subs_ok_b c && (cmd_plain c || is_unsub c || batch_tail_b c) else true
  | _ => true
  end.

(* ev_ok_b tests the strict form (cmd_loud_for): it does not look at the state *)
Lemma ev_ok_b_one : forall o ev w, ev_ok_b o ev = true -> ev_ok o w ev.
Proof.
  intros o ev w H1. destruct ev; cbn in *; auto. apply andb_true_iff in H1 as [Ha Hb]. split; [now left|now apply Nat.leb_le].
Qed.

Lemma ev_clean_b_one : forall o ev w, ev_clean_b o ev = true -> ev_clean o w ev.
Proof.
  intros o ev w H1.
  destruct ev as [| |b c]; cbn [ev_clean ev_clean_b] in *; auto. intros E. subst b. rewrite N.eqb_refl in H1.
  apply andb_true_iff in H1 as [Ha Hb]. split; [now apply cmd_subs_ok_b_spec|].
  apply orb_true_iff in Hb as [Hb|Hb]; [apply orb_true_iff in Hb as [Hb|Hb]|].
  - left. split; [now apply nounsub_of_plain|]. intros ss _. now apply covered_of_plain.
  - right. left. destruct c; try discriminate. eauto.
  - right. right. destruct c as [| | | | | | |l]; try discriminate. cbn [batch_tail_b] in Hb.
    apply andb_true_iff in Hb as [Hb1 Hb2].
    exists (take_b tail_cmd l), (take_b cmd_plain (drop_b tail_cmd l)), (drop_b cmd_plain (drop_b tail_cmd l)).
    split; [f_equal; rewrite <- take_drop_b; apply take_drop_b|].
    split; [exact Hb2|]. split; [apply take_b_all|].
    pose proof (take_b_all cmd_plain (drop_b tail_cmd l)) as Hpp.
    split; [|split; [exact Hb1|]].
    + rewrite forallb_forall in *. intros x Hx. apply nounsub_of_plain. now apply Hpp.
    + intros ss _. apply covered_of_plain. exact Hpp.
Qed.

Lemma ok_wrun_app_b : forall o l r w, forallb (ev_ok_b o) l = true -> forallb (ev_clean_b o) l = true ->
  ok_wrun fx o (world_run fx l w) r -> ok_wrun fx o w (l ++ r).
Proof.
  intros o. induction l as [|ev l IH]; intros r w H H' Hr; [exact Hr|]. cbn [forallb] in H, H'.
  apply andb_true_iff in H as [H1 H2]. apply andb_true_iff in H' as [H3 H4].
  split; [now apply ev_ok_b_one|split; [now apply ev_clean_b_one|now apply IH]].
Qed.

Lemma ok_wrun_b_spec : forall o evs w, forallb (ev_ok_b o) evs = true -> forallb (ev_clean_b o) evs = true -> ok_wrun fx o w evs.
Proof. intros o evs w H H'. rewrite <- (app_nil_r evs). now apply ok_wrun_app_b. Qed.

Fixpoint wf_wrun_b (w : world) (evs : list event) : bool :=
  match evs with
  | [] => true
  | ev :: r => wf_event_b (w_srv w) ev && wf_wrun_b (world_step fx w ev) r
  end.

Lemma wf_wrun_b_spec : forall evs w, wf_wrun_b w evs = true -> wf_wrun fx w evs.
Proof.
  induction evs as [|ev evs IH]; intros w H; cbn [wf_wrun_b wf_wrun] in *; auto.
  apply andb_true_iff in H as [H1 H2]. split; [now apply wf_event_b_spec|now apply IH].
Qed.

(* all premises of mirror_converges_partial at once *)
Definition premises_b (evs : list event) (o : sid) : bool :=
  wf_wrun_b empty_world evs && forallb (ev_ok_b o) evs && forallb (ev_clean_b o) evs
  && N.ltb (N.of_nat (run_budget evs)) 2147483647.

Lemma premises_b_spec : forall evs o, premises_b evs o = true ->
  wf_wrun fx empty_world evs /\ ok_wrun fx o empty_world evs /\ small (run_budget evs).
Proof.
  intros evs o H. unfold premises_b in H. repeat (apply andb_true_iff in H as [H ?]).
  split; [now apply wf_wrun_b_spec|split; [now apply ok_wrun_b_spec|]].
  unfold small. now apply N.ltb_lt.
Qed.

End Check.
