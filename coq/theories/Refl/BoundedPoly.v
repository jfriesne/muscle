(* Refl/BoundedPoly.v -- C07: the polynomial bound.  [csize] / [bsize] measure a command (path clauses, keys,
   subscriptions, sub-commands); with z the size of the command, NT the number of nodes, S the node weight (nodes +
   subscriber-table entries), n the number of sessions of the state the command arrives in, ONE handler call
     adds at most z nodes, at most z*(NT+z+n+1) node weight, and at most z*(S + z*(NT+z+n+1) + NT + 2n+1) items
   to the PR_RESULT_DATAITEMS Messages held by the server ([univ]); so the heaviest outgoing Message any jettison pass of
   the handler meets ([hpeak], the fuel the handler needs) is bounded by the heaviest Message already queued or the
   items already held plus that cubic polynomial: [hpeak_poly].  Defines [Bf] / [Gf] (the polynomials), [QM] (heaviest
   Message queued for a session) and [bstep_ok] (a step of the server with its gateways within given bounds). *)
From Coq Require Import List NArith ZArith Bool Arith Lia.
From Muscle Require Import Gen.Consts Refl.Base Refl.Tree Refl.TreeProofs Refl.Matcher Refl.Session Refl.Server
  Refl.ServerProofs Refl.Bounded Refl.BoundedSpec Refl.BoundedProofs Refl.BoundedInv Refl.BoundedServe
  Refl.BoundedLoops Refl.BoundedCost.
Import ListNotations.

Definition Bf (z NT n : nat) : nat := z * (NT + z + n + 1).
Definition Gf (z NT S n : nat) : nat := z * (S + z * (NT + z + n + 1) + NT + 2 * n + 1).

Lemma Bf_mono : forall z NT NT' n, NT <= NT' -> Bf z NT n <= Bf z NT' n.
Proof. intros. unfold Bf. apply Nat.mul_le_mono_l. lia. Qed.

Lemma Gf_mono : forall z NT NT' S S' n, NT <= NT' -> S <= S' -> Gf z NT S n <= Gf z NT' S' n.
Proof.
  intros z NT NT' S S' n H H0. unfold Gf. apply Nat.mul_le_mono_l.
  pose proof (Nat.mul_le_mono_l (NT + z + n + 1) (NT' + z + n + 1) z ltac:(lia)). lia.
Qed.

Lemma Bf_comp : forall z1 z2 NT NT1 n, NT1 <= NT + z1 -> Bf z1 NT n + Bf z2 NT1 n <= Bf (z1 + z2) NT n.
Proof. intros z1 z2 NT NT1 n H. pose proof (Bf_mono z2 NT1 (NT + z1) n H). unfold Bf in *. nia. Qed.

Lemma Gf_comp : forall z1 z2 NT NT1 S S1 n, NT1 <= NT + z1 -> S1 <= S + Bf z1 NT n ->
  Gf z1 NT S n + Gf z2 NT1 S1 n <= Gf (z1 + z2) NT S n.
Proof.
  intros z1 z2 NT NT1 S S1 n H H0. pose proof (Gf_mono z2 NT1 (NT + z1) S1 (S + Bf z1 NT n) n H H0).
  unfold Gf, Bf in *. nia.
Qed.

Lemma Gf_zmono : forall z z' NT S n, z <= z' -> Gf z NT S n <= Gf z' NT S n.
Proof.
  intros z z' NT S n H. unfold Gf. apply Nat.mul_le_mono; [exact H|].
  pose proof (Nat.mul_le_mono z z' (NT + z + n + 1) (NT + z' + n + 1) H ltac:(lia)). lia.
Qed.

Section Poly.
Context {M : MatchOps}.
Variable fx : fixes.

(* ------------------------------------------------------------------ sizes of commands *)

Fixpoint csize (c : cmd) : nat :=
  match c with
  | CSetData _ items => 1 + list_sum (map (fun it => 1 + length (fst it)) items)
  | CRemoveData _ _ => 1
  | CSubscribe _ subs => 1 + length subs
  | CUnsubscribe subs => 1 + length subs
  | CSetMax _ => 1
  | CResetMax => 1
  | CGetData _ => 1
  | CBatch l => 1 + (fix go (l : list cmd) : nat := match l with [] => 0 | c' :: r => csize c' + go r end) l
  end.

Definition univ (z : nat) (sv sv' : server) : Prop :=
  step_ok z (Bf z (length (sv_tree sv)) (NS sv)) (Gf z (length (sv_tree sv)) (SZ (sv_tree sv)) (NS sv)) sv sv'.

Lemma univ_of_step : forall a b g z sv sv', step_ok a b g sv sv' -> a <= z -> b <= Bf z (length (sv_tree sv)) (NS sv) ->
  g <= Gf z (length (sv_tree sv)) (SZ (sv_tree sv)) (NS sv) -> univ z sv sv'.
Proof. intros a b g z sv sv'. apply step_ok_weaken. Qed.

Global Arguments univ_of_step {a b g z sv sv'}.

Lemma univ_trans : forall z1 z2 sv sv1 sv2, univ z1 sv sv1 -> univ z2 sv1 sv2 -> univ (z1 + z2) sv sv2.
Proof.
  intros z1 z2 sv sv1 sv2 H1 H2. unfold univ in *.
  pose proof (step_ok_trans H1 H2) as H3.
  destruct H1 as [K1 [_ [K3 [K4 _]]]]. rewrite (NS_ids sv sv1 K1) in H3.
  apply (step_ok_weaken H3); [lia|apply Bf_comp; exact K3|apply Gf_comp; [exact K3|exact K4]].
Qed.

Lemma univ_refl : forall z sv, good_sv sv -> univ z sv sv.
Proof. intros z sv Hg. apply step_ok_id. exact Hg. Qed.

Global Arguments univ_trans {z1 z2 sv sv1 sv2}.

Lemma univ_zmono : forall z z' sv sv', z <= z' -> univ z sv sv' -> univ z' sv sv'.
Proof.
  intros z z' sv sv' H Hu. unfold univ in *. apply (step_ok_weaken Hu); [exact H| |].
  - unfold Bf. apply Nat.mul_le_mono; lia.
  - apply Gf_zmono. exact H.
Qed.

(* ------------------------------------------------------------------ the handlers of Server.v *)

Lemma setdata_items_cost : forall (items : list (list name * payload)) flags s sv, good_sv sv ->
  let Z := list_sum (map (fun it => length (fst it)) items) in
  let K := length items in
  step_ok Z (Z * (1 + NS sv)) (K * (SZ (sv_tree sv) + Z * (1 + NS sv)) + Z * (2 * NS sv + 1)) sv
    (fold_left (fun sv' it => match get_session sv' s with
                              | Some ss' => match fst it with [] => sv' | _ => set_data_node sv' ss' (fst it) (snd it) flags end
                              | None => sv'
                              end) items sv).
Proof.
  induction items as [|it items IH]; intros flags s sv Hg; cbv zeta; cbn [fold_left map length]; [apply step_ok_id; exact Hg|].
  rewrite list_sum_cons.
  match goal with |- context [fold_left _ items ?x] => set (sv1 := x) end.
  assert (H1 : step_ok (length (fst it)) (length (fst it) * (1 + NS sv)) (SZ (sv_tree sv) + length (fst it) * (2 * NS sv + 1)) sv sv1).
  { subst sv1. destruct (get_session sv s) as [ss'|]; [|apply step_ok_id; exact Hg].
    destruct (fst it) as [|k r] eqn:E; [apply step_ok_id; exact Hg|]. apply set_data_loop_cost. exact Hg. }
  specialize (IH flags s sv1 (good_step Hg H1)). cbv zeta in IH. rewrite (NS_ids sv sv1 (proj1 H1)) in IH.
  apply (step_ok_weaken (step_ok_trans H1 IH)); try lia.
  destruct H1 as [_ [_ [_ [Hs _]]]]. nia.
Qed.

Lemma list_sum_succ : forall (A : Type) (f : A -> nat) (l : list A),
  list_sum (map (fun a => 1 + f a) l) = length l + list_sum (map f l).
Proof. intros A f l. induction l as [|a l IH]; cbn [map length]; [reflexivity|]. rewrite !list_sum_cons. lia. Qed.

Lemma fold_step_const : forall (B : Type) (f : server -> B -> server) (l : list B) (b g : nat) (sv : server),
  good_sv sv ->
  (forall acc x, good_sv acc -> length (sv_tree acc) <= length (sv_tree sv) -> step_ok 0 b g acc (f acc x)) ->
  step_ok 0 (length l * b) (length l * g) sv (fold_left f l sv).
Proof.
  intros B f l b g sv Hg Hf.
  assert (H : forall acc, good_sv acc -> length (sv_tree acc) <= length (sv_tree sv) ->
                          step_ok 0 (length l * b) (length l * g) acc (fold_left f l acc)); [|apply H; [exact Hg|lia]].
  induction l as [|x l IH]; intros acc Ha Hl; cbn [fold_left length]; [apply step_ok_id; exact Ha|].
  pose proof (Hf acc x Ha Hl) as H1.
  assert (Hl1 : length (sv_tree (f acc x)) <= length (sv_tree sv)) by (destruct H1 as [_ [_ [H3 _]]]; lia).
  apply (step_ok_weaken (step_ok_trans H1 (IH (f acc x) (good_step Ha H1) Hl1))); lia.
Qed.

Lemma step_push_all : forall sv, good_sv sv -> step_ok 0 0 0 sv (push_all sv).
Proof. intros sv Hg. apply step_frame; [exact Hg|apply frame_push_all|rewrite tw_push_all; lia]. Qed.

(* every command of Server.v *)
Lemma handle_cost : forall c nest sv s, good_sv sv -> univ (csize c) sv (handle fx nest sv s c).
Proof.
  induction c as [flags items|quiet keys|quiet subs|subs|n| |keys|l IHl] using cmd_ind'; intros nest sv s Hg;
    cbn [handle]; destruct (get_session sv s) as [ss|]; try (apply univ_refl; exact Hg).
  - (* SETDATA *)
    pose proof (setdata_items_cost items flags s sv Hg) as H. cbv zeta in H. cbn [csize]. rewrite list_sum_succ.
    apply (univ_of_step H); unfold Bf, Gf; nia.
  - (* REMOVEDATA *)
    apply (univ_of_step (shrink_step _ _ (do_remove_data_shrink fx sv ss keys quiet Hg))); unfold Bf, Gf; cbn [csize]; nia.
  - (* SETPARAMETERS: subscriptions, then the initial values *)
    pose proof (fold_step_const _ (fun sv' sf => subscribe_one fx sv' s sf) subs (length (sv_tree sv)) (length (sv_tree sv)) sv Hg) as H1.
    specialize (H1 ltac:(intros acc x Ha Hl; apply (step_ok_weaken (subscribe_one_cost fx acc s x Ha)); lia)).
    set (sv1 := fold_left (fun sv' sf => subscribe_one fx sv' s sf) subs sv) in *.
    cbn [csize].
    destruct quiet; [apply (univ_of_step H1); unfold Bf, Gf; nia|].
    destruct subs as [|sf0 subs']; [apply (univ_of_step H1); unfold Bf, Gf; nia|].
    assert (Hg1 : good_sv sv1) by (exact (good_step Hg H1)).
    set (sv2 := if fx_push fx then push_all sv1 else sv1).
    assert (H2 : step_ok 0 0 0 sv1 sv2) by (subst sv2; destruct (fx_push fx); [apply step_push_all|apply step_ok_refl]; exact Hg1).
    pose proof (do_get_data_cost fx sv2 s (sf0 :: subs') (good_step Hg1 H2)) as H3.
    assert (Hl2 : length (sv_tree sv2) <= length (sv_tree sv)) by (destruct H1 as [_ [_ [K1 _]]]; destruct H2 as [_ [_ [K2 _]]]; lia).
    apply (univ_of_step (step_ok_trans H1 (step_ok_trans H2 H3)));
      unfold Bf, Gf; cbn [length] in *; nia.
  - (* REMOVEPARAMETERS *)
    pose proof (fold_step_const _ (fun sv' sp => unsubscribe_one fx sv' s sp) subs (length (sv_tree sv)) 0 sv Hg) as H1.
    specialize (H1 ltac:(intros acc x Ha Hl; apply (step_ok_weaken (unsubscribe_one_cost fx acc s x Ha)); lia)).
    cbn [csize]. apply (univ_of_step H1); unfold Bf, Gf; nia.
  - apply (univ_of_step (step_upd_same sv s (fun x => set_max x (u32_of_Z n)) Hg (fun _ => eq_refl) (fun _ => eq_refl))); lia.
  - apply (univ_of_step (step_upd_same sv s (fun x => set_max x default_max_items) Hg (fun _ => eq_refl) (fun _ => eq_refl))); lia.
  - (* GETDATA *)
    apply (univ_of_step (do_get_data_cost fx sv s keys Hg)); unfold Bf, Gf; cbn [csize]; nia.
  - (* BATCH *)
    cbn [csize]. destruct (Nat.ltb nest max_batch_nest); [|apply univ_refl; exact Hg].
    apply (univ_zmono ((fix go (l : list cmd) : nat := match l with [] => 0 | c' :: r => csize c' + go r end) l)); [lia|].
    revert sv Hg. induction IHl as [|c' r Hc' _ IHr]; intros sv Hg; [apply univ_refl; exact Hg|].
    pose proof (Hc' (S nest) sv s Hg) as H1.
    pose proof (step_push_all _ (good_step Hg H1)) as H2.
    assert (H12 : univ (csize c') sv (push_all (handle fx (S nest) sv s c'))).
    { unfold univ in *. apply (step_ok_weaken (step_ok_trans H1 H2)); lia. }
    exact (univ_trans H12 (IHr _ (good_step Hg H12))).
Qed.

(* ------------------------------------------------------------------ the outgoing queue of one session *)

Definition QM (b : bserver) (w : sid) : nat := qweight (queue_of b w).

Lemma qweight_cons : forall x q, qweight (x :: q) = Nat.max (omsg_weight x) (qweight q).
Proof. reflexivity. Qed.

Lemma qm_map : forall (b : bserver) (h : gw -> gw) (K : nat) (sv' : server) (last : list (sid * list omsg)) (w : sid),
  (forall g, g_sid (h g) = g_sid g) -> (forall g, qweight (g_q (h g)) <= Nat.max (qweight (g_q g)) K) ->
  QM (mkB sv' (map h (b_gws b)) last) w <= Nat.max (QM b w) K.
Proof.
  intros b h K sv' last w Hs Hk. unfold QM, queue_of. cbn [b_gws]. rewrite find_gw_map by exact Hs.
  destruct (find_gw (b_gws b) w) as [g|]; cbn [option_map]; [apply Hk|cbn; lia].
Qed.

(* what a session hands to its gateway was counted in [tw] *)
Lemma qweight_out : forall sv ss, In ss (sv_sessions sv) -> qweight (map ODataItems (s_out ss)) <= tw sv.
Proof.
  intros sv ss Hs. unfold qweight. rewrite map_map. cbn [omsg_weight]. apply list_max_le, Forall_forall. intros k Hk.
  apply in_map_iff in Hk. destruct Hk as [d [<- Hd]].
  pose proof (list_sum_le _ di_weight _ d Hd). pose proof (list_sum_le _ sw _ ss Hs). unfold tw, sw, outw in *. lia.
Qed.

Lemma sw_clear_out : forall x : session, sw (clear_out x) <= sw x.
Proof. intros x. unfold sw, clear_out. cbn [s_pending s_out]. unfold outw at 1. cbn. lia. Qed.

Lemma tw_absorb : forall b sv', tw (b_sv (absorb b sv')) <= tw sv'.
Proof.
  intros b sv'. unfold absorb, tw. cbn [b_sv sv_sessions]. rewrite map_map.
  induction (sv_sessions sv') as [|x l IH]; cbn [map]; [lia|]. rewrite !list_sum_cons. pose proof (sw_clear_out x). lia.
Qed.

Lemma qweight_remove_nth : forall i q, qweight (remove_nth i q) <= qweight q.
Proof.
  induction i as [|i IH]; intros [|x q]; unfold remove_nth.
  - cbn. lia.
  - cbn [firstn app]. change (skipn 1 (x :: q)) with q. rewrite qweight_cons. lia.
  - cbn. lia.
  - cbn [firstn app]. change (skipn (S (S i)) (x :: q)) with (skipn (S i) q). rewrite !qweight_cons.
    specialize (IH q). unfold remove_nth in IH. lia.
Qed.

Lemma qweight_replace_nth : forall i q x, qweight (replace_nth i q x) <= Nat.max (qweight q) (omsg_weight x).
Proof.
  intros i q. revert i. induction q as [|y q IH]; intros i x; [destruct i; apply Nat.le_max_l|].
  destruct i as [|i]; cbn [replace_nth]; rewrite !qweight_cons; [lia|]. specialize (IH i x). lia.
Qed.

Lemma nth_error_weight : forall q i x, nth_error q i = Some x -> omsg_weight x <= qweight q.
Proof. intros q i x H. apply qweight_ge. apply (nth_error_In q i H). Qed.

Lemma msg_spec_weight : forall m d, di_weight (msg_spec m d) <= di_weight d.
Proof.
  intros m d. unfold msg_spec, di_weight. cbn [di_removed di_sets].
  pose proof (filter_length _ (keep_removed m) (di_removed d)).
  assert (H2 : sets_weight (flat_map (field_spec m) (di_sets d)) <= sets_weight (di_sets d)).
  { unfold sets_weight. induction (di_sets d) as [|[p vs] l IH]; cbn [flat_map map]; [lia|].
    rewrite map_app, list_sum_app, list_sum_cons. cbn [snd].
    assert (H3 : list_sum (map (fun pv : path * list payload => length (snd pv)) (field_spec m (p, vs))) <= length vs).
    { rewrite field_spec_vals.
      assert (Hv : length (field_vals m p vs) <= length vs).
      { unfold field_vals. destruct (N.ltb 0 (m_nfilters m)); [apply filter_length|]. destruct (matches_path m p None); cbn; lia. }
      destruct (field_vals m p vs); cbn [map snd list_sum fold_right length] in *; lia. }
    lia. }
  lia.
Qed.

Lemma jq_spec_weight : forall om q, qweight (jq_spec om q) <= qweight q.
Proof.
  intros om q. unfold jq_spec. induction q as [|x q IH]; cbn [flat_map]; [lia|].
  rewrite qweight_app, qweight_cons.
  assert (H : qweight (omsg_spec om x) <= omsg_weight x).
  { destruct x as [d| | |]; cbn [omsg_spec]; try (unfold qweight; cbn; lia).
    destruct (di_has_names _); [|cbn; lia]. rewrite qweight_cons. cbn [omsg_weight]. change (qweight []) with 0.
    destruct om as [m|]; [pose proof (msg_spec_weight m d); lia|cbn; lia]. }
  lia.
Qed.

Lemma jett_trees_from_weight : forall pat n q, qweight (jett_trees_from pat n q) <= qweight q.
Proof.
  intros pat n. induction n as [|i IH]; intros q; cbn [jett_trees_from]; [lia|].
  destruct (nth_error q i) as [[d|id roots|t|c0 w0]|]; try apply IH.
  outer_if; [|apply IH]. eapply Nat.le_trans; [apply IH|apply qweight_remove_nth].
Qed.

Lemma jettison_trees_weight : forall ids q, qweight (jettison_trees ids q) <= qweight q.
Proof.
  intros ids q. unfold jettison_trees, jett_trees_one. destruct ids as [l|]; [|apply jett_trees_from_weight].
  revert q. induction l as [|c l IH]; intros q; cbn [fold_left]; [lia|].
  eapply Nat.le_trans; [apply IH|apply jett_trees_from_weight].
Qed.

Lemma sets_weight_filter : forall (f : path * list payload -> bool) l, sets_weight (filter f l) <= sets_weight l.
Proof.
  intros f l. unfold sets_weight. induction l as [|x l IH]; cbn [filter map]; [lia|].
  destruct (f x); cbn [map]; rewrite ?list_sum_cons; lia.
Qed.

Lemma prune_di_weight : forall d p d', prune_di d p = Some d' -> di_weight d' <= di_weight d.
Proof.
  intros d p d' H. unfold prune_di in H. destruct (di_has_set d p); [|discriminate]. inversion H. unfold di_weight. cbn [di_removed di_sets].
  pose proof (sets_weight_filter (fun qv => negb (path_eqb (fst qv) p)) (di_sets d)). lia.
Qed.

Lemma supersede_scan_weight : forall p n q, qweight (supersede_scan p n q) <= qweight q.
Proof.
  intros p n. induction n as [|i IH]; intros q; cbn [supersede_scan]; [lia|].
  destruct (nth_error q i) as [[d|id roots|t|c0 w0]|] eqn:E; try apply IH.
  destruct (prune_di d p) as [d'|] eqn:Ep; [|apply IH].
  destruct (di_has_names d'); [|apply qweight_remove_nth].
  eapply Nat.le_trans; [apply qweight_replace_nth|]. cbn [omsg_weight].
  pose proof (prune_di_weight d p d' Ep). pose proof (nth_error_weight q i _ E) as Hw. cbn [omsg_weight] in Hw. lia.
Qed.

Definition bstep_ok (a bb g : nat) (w : sid) (b b' : bserver) : Prop :=
  step_ok a bb g (b_sv b) (b_sv b') /\ QM b' w <= Nat.max (QM b w) (tw (b_sv b) + g).

Lemma bstep_id : forall a bb g w b, good_sv (b_sv b) -> bstep_ok a bb g w b b.
Proof. intros a bb g w b Hg. split; [apply step_ok_id; exact Hg|lia]. Qed.

Lemma bstep_weaken : forall a bb g a' bb' g' w b b', bstep_ok a bb g w b b' -> a <= a' -> bb <= bb' -> g <= g' -> bstep_ok a' bb' g' w b b'.
Proof. intros a bb g a' bb' g' w b b' [H1 H2] Ha Hb Hg0. split; [apply (step_ok_weaken H1); assumption|lia]. Qed.

Lemma bstep_trans : forall a1 b1 g1 a2 b2 g2 w b x y,
  bstep_ok a1 b1 g1 w b x -> bstep_ok a2 b2 g2 w x y -> bstep_ok (a1 + a2) (b1 + b2) (g1 + g2) w b y.
Proof.
  intros a1 b1 g1 a2 b2 g2 w b x y [S1 Q1] [S2 Q2]. split; [exact (step_ok_trans S1 S2)|].
  destruct S1 as [_ [_ [_ [_ T1]]]]. lia.
Qed.

Lemma bgood_step : forall a bb g w b b', good_sv (b_sv b) -> bstep_ok a bb g w b b' -> good_sv (b_sv b').
Proof. intros a bb g w b b' Hg [H _]. exact (good_step Hg H). Qed.

Global Arguments bstep_weaken {a bb g a' bb' g' w b b'}.
Global Arguments bstep_trans {a1 b1 g1 a2 b2 g2 w b x y}.
Global Arguments bgood_step {a bb g w b b'}.

Lemma bstep_absorb : forall a bb g w b sv', step_ok a bb g (b_sv b) sv' -> bstep_ok a bb g w b (absorb b sv').
Proof.
  intros a bb g w b sv' Hs. split.
  - destruct Hs as [H1 [H2 [H3 [H4 H5]]]]. unfold step_ok, paths in *. rewrite ids_absorb.
    pose proof (tw_absorb b sv') as H. unfold absorb in *. cbn [b_sv sv_tree] in *. repeat split; try assumption. lia.
  - destruct Hs as [_ [_ [_ [_ H5]]]]. unfold absorb.
    eapply Nat.le_trans; [apply (qm_map b _ (tw sv'))|lia].
    + intros g0. destruct (find_session (sv_sessions sv') (g_sid g0)); reflexivity.
    + intros g0. destruct (find_session (sv_sessions sv') (g_sid g0)) as [ss|] eqn:Hf; cbn [g_q]; [|lia].
      rewrite qweight_app. apply Nat.max_le_compat_l, qweight_out, (find_session_some _ _ _ Hf).
Qed.

Lemma bstep_upd_gw : forall w b s (f : gw -> gw), good_sv (b_sv b) ->
  (forall g, g_sid (f g) = g_sid g) -> (forall g, qweight (g_q (f g)) <= qweight (g_q g)) -> bstep_ok 0 0 0 w b (upd_gw b s f).
Proof.
  intros w b s f Hg Hs Hq. split; [unfold upd_gw; cbn [b_sv]; apply step_ok_refl; exact Hg|].
  unfold upd_gw. eapply Nat.le_trans; [apply (qm_map b _ 0)|lia].
  - intros g. destruct (N.eqb (g_sid g) s); [apply Hs|reflexivity].
  - intros g. destruct (N.eqb (g_sid g) s); [specialize (Hq g); lia|lia].
Qed.

(* PONG, bounces and PR_RESULT_DATATREES weigh nothing *)
Lemma bstep_enqueue : forall w b s x, good_sv (b_sv b) -> omsg_weight x = 0 -> bstep_ok 0 0 0 w b (enqueue b s x).
Proof.
  intros w b s x Hg Hx. apply bstep_upd_gw; [exact Hg|reflexivity|].
  intros g. cbn [g_q]. rewrite qweight_app. unfold qweight at 2. cbn [map list_max fold_right]. lia.
Qed.

Lemma bstep_with_sv : forall a bb g w b sv', step_ok a bb g (b_sv b) sv' -> bstep_ok a bb g w b (with_sv b sv').
Proof. intros a bb g w b sv' Hs. split; [exact Hs|unfold QM, queue_of, with_sv; cbn [b_gws]; lia]. Qed.

Lemma qm_set_queue : forall b s q' w, QM (set_queue b s q') w <= Nat.max (QM b w) (if N.eqb w s then qweight q' else 0).
Proof.
  intros b s q' w. unfold QM, queue_of, set_queue, upd_gw. cbn [b_gws].
  rewrite find_gw_map by (intros g; destruct (N.eqb (g_sid g) s); reflexivity).
  destruct (find_gw (b_gws b) w) as [g|] eqn:Hf; cbn [option_map]; [|cbn; lia].
  rewrite (find_gw_sid _ _ _ Hf). destruct (N.eqb w s); cbn [g_q]; lia.
Qed.

(* replacing session s's queue by one that is no heavier than it was *)
Lemma bstep_set_queue : forall w b s q', good_sv (b_sv b) -> qweight q' <= qweight (queue_of b s) -> bstep_ok 0 0 0 w b (set_queue b s q').
Proof.
  intros w b s q' Hg Hq. split; [unfold set_queue, upd_gw; cbn [b_sv]; apply step_ok_refl; exact Hg|].
  pose proof (qm_set_queue b s q' w) as H. destruct (N.eqb w s) eqn:E; [apply N.eqb_eq in E; subst w; unfold QM in *; lia|lia].
Qed.

(* ------------------------------------------------------------------ SETDATA with ENABLESUPERCEDE, step by step *)

Lemma prune_for_cost : forall w b s p, good_sv (b_sv b) -> bstep_ok 0 0 0 w b (prune_for b s p).
Proof.
  intros w b s p Hg. unfold prune_for. destruct (get_session (b_sv b) s) as [ss|] eqn:Hs; [|apply bstep_id; exact Hg].
  destruct (match s_pending ss with Some pd => prune_di pd p | None => None end) as [pd'|] eqn:Ed;
    [|apply bstep_set_queue; [exact Hg|apply supersede_scan_weight]].
  destruct (s_pending ss) as [pd|] eqn:Ep; [|discriminate].
  apply bstep_with_sv, step_frame; [exact Hg|apply frame_upd_session; reflexivity|].
  apply (tw_set_pending _ s ss); [apply Hg|exact Hs|]. rewrite Ep. cbn [wopt]. pose proof (prune_di_weight pd p pd' Ed). lia.
Qed.

Lemma step_nca : forall sv s p d removed, good_sv sv -> step_ok 0 0 1 sv (node_changed_aux sv s p d removed).
Proof.
  intros sv s p d removed Hg. apply step_frame; [exact Hg|apply frame_node_changed_aux|apply tw_node_changed_aux, Hg].
Qed.

Lemma bnca_set_cost : forall w b s p d sup, good_sv (b_sv b) -> bstep_ok 0 0 1 w b (bnca_set b s p d sup).
Proof.
  intros w b s p d sup Hg. unfold bnca_set. cbv zeta.
  set (b1 := if sup then prune_for b s p else b).
  assert (H1 : bstep_ok 0 0 0 w b b1) by (subst b1; destruct sup; [apply prune_for_cost|apply bstep_id]; exact Hg).
  pose proof (bstep_absorb 0 0 1 w b1 _ (step_nca (b_sv b1) s p d false (bgood_step Hg H1))) as H2.
  exact (bstep_trans H1 H2).
Qed.

Lemma bnode_changed_cost : forall w b s p d old sup, good_sv (b_sv b) -> bstep_ok 0 0 1 w b (bnode_changed b s p d old sup).
Proof.
  intros w b s p d old sup Hg. destruct (bnode_changed_cases b s p d old sup) as [->|[->| ->]];
    [apply bstep_id; exact Hg|apply bstep_absorb, step_nca; exact Hg|apply bnca_set_cost; exact Hg].
Qed.

Lemma bnotify_changed_cost : forall w b by_ p d old sup n, good_sv (b_sv b) -> find_node (sv_tree (b_sv b)) p = Some n ->
  bstep_ok 0 0 (length (n_subs n)) w b (bnotify_changed b by_ p d old sup).
Proof.
  intros w b by_ p d old sup n Hg Hf. unfold bnotify_changed. rewrite Hf.
  generalize (n_subs n). intros l. clear Hf. revert b Hg. induction l as [|kc l IH]; intros b Hg; cbn [fold_left length];
    [apply bstep_id; exact Hg|].
  set (b1 := if N.eqb (fst kc) by_ then b else bnode_changed b (fst kc) p d old sup).
  assert (H1 : bstep_ok 0 0 1 w b b1) by (subst b1; outer_if; [apply bstep_id|apply bnode_changed_cost]; exact Hg).
  exact (bstep_trans H1 (IH b1 (bgood_step Hg H1))).
Qed.

Lemma bset_data_loop_cost : forall w cl b by_ pp d dc dov q sup, good_sv (b_sv b) ->
  bstep_ok (length cl) (length cl * (1 + NS (b_sv b))) (SZ (sv_tree (b_sv b)) + length cl * (2 * NS (b_sv b) + 1))
           w b (bset_data_loop b by_ pp cl d dc dov q sup).
Proof.
  intros w. induction cl as [|k rest IH]; intros b by_ pp d dc dov q sup Hg; cbn [bset_data_loop length]; [apply bstep_id; exact Hg|].
  cbv zeta. destruct (find_node (sv_tree (b_sv b)) (pp ++ [k])) as [n|] eqn:Hf.
  - destruct rest as [|k2 rest2]; [|apply (bstep_weaken (IH b by_ (pp ++ [k]) d dc dov q sup Hg)); cbn [length]; lia].
    destruct dov; [apply bstep_id; exact Hg|].
    destruct (step_set_data (b_sv b) (pp ++ [k]) d n Hg Hf) as [S1 [n1 [Hf1 Hs1]]].
    pose proof (bstep_with_sv _ _ _ w b _ S1) as H1.
    destruct q; [apply (bstep_weaken H1); lia|].
    pose proof (bnotify_changed_cost w _ by_ (pp ++ [k]) d (Some (n_data n)) sup n1 (bgood_step Hg H1) Hf1) as H2.
    apply (bstep_weaken (bstep_trans H1 H2)); try lia.
    pose proof (nw_le_SZ _ _ (proj1 (find_node_some _ _ _ Hf))). unfold nw in *. rewrite Hs1. lia.
  - destruct dc; [apply bstep_id; exact Hg|]. outer_if; [apply bstep_id; exact Hg|].
    match goal with |- context [add_node (sv_tree (b_sv b)) ?nn] => set (newn := nn) end.
    destruct (step_add_node (b_sv b) newn (NS (b_sv b)) Hg Hf (new_node_table_len _ _)) as [S1 Hf1].
    pose proof (bstep_with_sv _ _ _ w b _ S1) as H1.
    set (sv1 := set_tree (b_sv b) (add_node (sv_tree (b_sv b)) newn)) in *.
    pose proof (good_step Hg S1) as Hg1.
    destruct rest as [|k2 rest2].
    + destruct q; [apply (bstep_weaken H1); cbn [length]; lia|].
      pose proof (bnotify_changed_cost w (with_sv b sv1) by_ (pp ++ [k]) d None sup newn Hg1 Hf1) as H2.
      apply (bstep_weaken (bstep_trans H1 H2)); cbn [length]; try lia.
      pose proof (new_node_table_len (b_sv b) (pp ++ [k])). cbn [n_subs newn]. lia.
    + set (b2 := if q then with_sv b sv1 else absorb b (notify_changed sv1 by_ (pp ++ [k]) empty_payload None false)).
      assert (H2 : bstep_ok 1 (1 + NS (b_sv b)) (NS (b_sv b)) w b b2).
      { subst b2. destruct q; [apply (bstep_weaken H1); lia|].
        apply bstep_absorb.
        pose proof (step_notify sv1 by_ (pp ++ [k]) empty_payload None false newn Hg1 Hf1) as Hn.
        apply (step_ok_weaken (step_ok_trans S1 Hn)); try lia. apply new_node_table_len. }
      pose proof (IH b2 by_ (pp ++ [k]) d false dov q sup (bgood_step Hg H2)) as H3.
      rewrite (NS_ids _ _ (proj1 (proj1 H2))) in H3.
      apply (bstep_weaken (bstep_trans H2 H3)); cbn [length]; try lia.
      destruct H2 as [[_ [_ [_ [Hsz _]]]] _]. nia.
Qed.

Lemma bsetsup_items_cost : forall w (items : list (list name * payload)) flags s b, good_sv (b_sv b) ->
  let Z := list_sum (map (fun it => length (fst it)) items) in
  let K := length items in
  bstep_ok Z (Z * (1 + NS (b_sv b))) (K * (SZ (sv_tree (b_sv b)) + Z * (1 + NS (b_sv b))) + Z * (2 * NS (b_sv b) + 1)) w b
    (fold_left (fun b' it =>
                  match get_session (b_sv b') s with
                  | Some ss' => match fst it with
                                | [] => b'
                                | _ => bset_data_loop b' (s_id ss') (session_dir ss') (fst it) (snd it)
                                         (flag_set flags c_SETDATANODE_FLAG_DONTCREATENODE)
                                         (flag_set flags c_SETDATANODE_FLAG_DONTOVERWRITEDATA)
                                         (flag_set flags c_SETDATANODE_FLAG_QUIET) true
                                end
                  | None => b'
                  end) items b).
Proof.
  intros w. induction items as [|it items IH]; intros flags s b Hg; cbv zeta; cbn [fold_left map length]; [apply bstep_id; exact Hg|].
  rewrite list_sum_cons.
  match goal with |- context [fold_left _ items ?bb] => set (b1 := bb) end.
  assert (H1 : bstep_ok (length (fst it)) (length (fst it) * (1 + NS (b_sv b))) (SZ (sv_tree (b_sv b)) + length (fst it) * (2 * NS (b_sv b) + 1)) w b b1).
  { subst b1. destruct (get_session (b_sv b) s) as [ss'|]; [|apply bstep_id; exact Hg].
    destruct (fst it) as [|k r] eqn:E; [apply bstep_id; exact Hg|]. apply bset_data_loop_cost. exact Hg. }
  specialize (IH flags s b1 (bgood_step Hg H1)). cbv zeta in IH. rewrite (NS_ids _ _ (proj1 (proj1 H1))) in IH.
  apply (bstep_weaken (bstep_trans H1 IH)); try lia.
  destruct H1 as [[_ [_ [_ [Hs _]]]] _]. nia.
Qed.

(* ------------------------------------------------------------------ the commands of Bounded.v *)

Fixpoint bsize (c : bcmd) : nat :=
  match c with
  | BBase c0 => csize c0
  | BSetSup _ items => 1 + list_sum (map (fun it => 1 + length (fst it)) items)
  | BBatch l => 1 + (fix go (l : list bcmd) : nat := match l with [] => 0 | c' :: r => bsize c' + go r end) l
  | _ => 1
  end.

(* a command of size z: [bstep_ok] at the polynomial bounds of the state it arrives in *)
Definition buniv (z : nat) (w : sid) (b b' : bserver) : Prop :=
  bstep_ok z (Bf z (length (sv_tree (b_sv b))) (NS (b_sv b)))
           (Gf z (length (sv_tree (b_sv b))) (SZ (sv_tree (b_sv b))) (NS (b_sv b))) w b b'.

Definition PB (z : nat) (b : bserver) (w : sid) : nat :=
  Nat.max (QM b w) (tw (b_sv b) + Gf z (length (sv_tree (b_sv b))) (SZ (sv_tree (b_sv b))) (NS (b_sv b))).

Lemma buniv_quiet : forall z w b b', bstep_ok 0 0 0 w b b' -> buniv z w b b'.
Proof. intros z w b b' H. unfold buniv. apply (bstep_weaken H); lia. Qed.

Lemma buniv_trans : forall z1 z2 w b b1 b2, buniv z1 w b b1 -> buniv z2 w b1 b2 -> buniv (z1 + z2) w b b2.
Proof.
  intros z1 z2 w b b1 b2 [U1 Q1] [U2 Q2]. split; [exact (univ_trans U1 U2)|].
  destruct U1 as [K1 [_ [K3 [K4 K5]]]]. rewrite (NS_ids _ _ K1) in Q2.
  pose proof (Gf_comp z1 z2 _ _ _ _ (NS (b_sv b)) K3 K4) as Hc.
  pose proof (Gf_zmono z1 (z1 + z2) (length (sv_tree (b_sv b))) (SZ (sv_tree (b_sv b))) (NS (b_sv b)) ltac:(lia)). lia.
Qed.

Global Arguments buniv_trans {z1 z2 w b b1 b2}.

Lemma buniv_zmono : forall z z' w b b', z <= z' -> buniv z w b b' -> buniv z' w b b'.
Proof.
  intros z z' w b b' H [U Q]. split; [exact (univ_zmono _ _ _ _ H U)|].
  pose proof (Gf_zmono z z' (length (sv_tree (b_sv b))) (SZ (sv_tree (b_sv b))) (NS (b_sv b)) H). lia.
Qed.

Lemma bpush_buniv : forall w b, good_sv (b_sv b) -> buniv 0 w b (bpush_spec b).
Proof. intros w b Hg. apply buniv_quiet, bstep_absorb, step_push_all, Hg. Qed.

(* by induction over nested batches: each sub-command stays within the polynomial of the state it meets, the states
   in between grow by at most that polynomial ([buniv_trans] through [Gf_comp]), and a jettison pass meets only what was
   queued before or what the earlier sub-commands added ([PB]) *)
Lemma bhandle_cost : forall c nest b s, good_sv (b_sv b) ->
  buniv (bsize c) s b (bhandle_spec fx nest b s c) /\ hpeak fx nest b s c <= PB (bsize c) b s.
Proof.
  induction c as [c0|flags items|t| |code what|keys|ids0|id keys|l IHl] using bcmd_ind'; intros nest b s Hg;
    cbn [bhandle_spec hpeak bsize] in *;
    (destruct (get_session (b_sv b) s) as [ss|]; [|split; [apply buniv_quiet, bstep_id; exact Hg|unfold PB; lia]]);
    try (split; [|unfold PB, QM; lia]).
  - apply bstep_absorb, handle_cost. exact Hg.
  - pose proof (bsetsup_items_cost s items flags s b Hg) as H. cbv zeta in H. rewrite list_sum_succ.
    apply (bstep_weaken H); unfold Bf, Gf; nia.
  - apply buniv_quiet, bstep_enqueue; [exact Hg|reflexivity].
  - apply buniv_quiet, bstep_id; exact Hg.
  - apply buniv_quiet, bstep_enqueue; [exact Hg|reflexivity].
  - apply buniv_quiet, bstep_set_queue; [exact Hg|apply jq_spec_weight].
  - apply buniv_quiet, bstep_set_queue; [exact Hg|apply jettison_trees_weight].
  - apply buniv_quiet, bstep_enqueue; [exact Hg|reflexivity].
  - destruct (Nat.ltb nest max_batch_nest); [|split; [apply buniv_quiet, bstep_id; exact Hg|unfold PB; lia]].
    set (zz := (fix go (l : list bcmd) : nat := match l with [] => 0 | c' :: r => bsize c' + go r end) l).
    assert (Hmain : forall b0, good_sv (b_sv b0) ->
      buniv zz s b0 ((fix go (l : list bcmd) (b : bserver) : bserver :=
                        match l with [] => b | c' :: r => go r (bpush_spec (bhandle_spec fx (S nest) b s c')) end) l b0) /\
      (fix go (l : list bcmd) (b : bserver) : nat :=
         match l with [] => 0 | c' :: r => Nat.max (hpeak fx (S nest) b s c') (go r (bpush_spec (bhandle_spec fx (S nest) b s c'))) end) l b0
      <= PB zz b0 s).
    { subst zz. clear Hg. induction IHl as [|c' r Hc' _ IHr]; intros b0 Hg0.
      - split; [apply buniv_quiet, bstep_id; exact Hg0|unfold PB; lia].
      - destruct (Hc' (S nest) b0 s Hg0) as [U1 P1].
        pose proof (buniv_trans U1 (bpush_buniv s _ (bgood_step Hg0 U1))) as U2. rewrite Nat.add_0_r in U2.
        destruct (IHr _ (bgood_step Hg0 U2)) as [U3 P3].
        split; [exact (buniv_trans U2 U3)|].
        set (zr := (fix go (l : list bcmd) : nat := match l with [] => 0 | c'0 :: r0 => bsize c'0 + go r0 end) r) in *.
        pose proof (Gf_zmono (bsize c') (bsize c' + zr) (length (sv_tree (b_sv b0))) (SZ (sv_tree (b_sv b0))) (NS (b_sv b0)) ltac:(lia)).
        apply Nat.max_lub; [unfold PB in *; lia|].
        eapply Nat.le_trans; [exact P3|]. unfold PB.
        destruct U2 as [[K1 [_ [K3 [K4 K5]]]] Q2]. rewrite (NS_ids _ _ K1).
        pose proof (Gf_comp (bsize c') zr _ _ _ _ (NS (b_sv b0)) K3 K4) as Hc. lia. }
    destruct (Hmain b Hg) as [U P]. split.
    + apply (buniv_zmono zz); [lia|exact U].
    + eapply Nat.le_trans; [exact P|]. unfold PB.
      pose proof (Gf_zmono zz (1 + zz) (length (sv_tree (b_sv b))) (SZ (sv_tree (b_sv b))) (NS (b_sv b)) ltac:(lia)). lia.
Qed.

(* hpeak_poly: the fuel the handler needs is polynomial (cubic) in the size of the state and of the command *)
Theorem hpeak_poly : forall c nest b s, good_sv (b_sv b) ->
  hpeak fx nest b s c <=
  Nat.max (qweight (queue_of b s))
          (tw (b_sv b) + Gf (bsize c) (length (sv_tree (b_sv b))) (SZ (sv_tree (b_sv b))) (NS (b_sv b))).
Proof. intros c nest b s Hg. exact (proj2 (bhandle_cost c nest b s Hg)). Qed.

(* distinct session ids and distinct node paths survive every dispatched command *)
Lemma good_sv_cmd : forall b s c, good_sv (b_sv b) -> good_sv (b_sv (bstep_spec fx b (BCmd s c))).
Proof.
  intros b s c Hg. cbn [bstep_spec]. destruct (get_session (b_sv b) s); [|exact Hg].
  unfold flush. cbn [b_sv].
  pose proof (bgood_step Hg (proj1 (bhandle_cost c 0 b s Hg))) as Hg1.
  exact (bgood_step Hg1 (bpush_buniv s _ Hg1)).
Qed.

End Poly.
