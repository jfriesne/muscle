(* Refl/TraverseSpec.v -- what a traversal visits, in the terms of the server proofs (wf_tree, wf_groups, the
   class MatchLaws, NodePathMatcher::MatchesNode): with the repaired guard (exactly one pattern), the nodes called
   back on are exactly the nodes below the start node that MatchesNode accepts, each once.  These are the
   theorems of Refl/TraverseTheorems.v under premises that imply theirs. *)
From Coq Require Import List NArith ZArith Bool Arith Lia.
From Muscle Require Import Refl.Base Refl.BaseProofs Refl.Tree Refl.TreeProofs Refl.Matcher Refl.MatcherProofs
     Refl.Traverse Refl.TravBase Refl.TraverseProofs Refl.TraverseTheorems Refl.TraverseFold.
Import ListNotations.

Section Sel.
Variable uf : bool.

Definition dsel (n : node) : option payload := if uf then Some (n_data n) else None.

End Sel.

Section Top.
Context {M : MatchOps} {L : MatchLaws M}.

Lemma pat_matches_firstn : forall (pt : pat) (p : path) j,
  pat_matches pt p = true -> pat_matches (firstn j pt) (firstn j p) = true.
Proof.
  induction pt as [|c pt IH]; intros p j H; destruct p as [|k p]; cbn in H; try discriminate.
  - now rewrite !firstn_nil.
  - destruct j; cbn; auto. apply andb_true_iff in H as [H1 H2]. rewrite H1. cbn. now apply IH.
Qed.

(* the nodes DoTraversal(cb, This, root, useFilters, ...) calls back on, in order *)
Definition vlist (t : tree) (m : matcher) (root : path) (uf : bool) : list node :=
  vtrav t m (length root) uf true (S (max_clauses m)) root.

(* a callback that always goes on: the traversal is a fold over the visit list *)
Theorem do_traversal_continue : forall (A : Type) (f : A -> node -> A) t m root uf acc,
  do_traversal (continue_cb f) t m root uf true acc = fold_left f (vlist t m root uf) acc.
Proof. intros A f t m root uf acc. unfold do_traversal. now rewrite trav_continue. Qed.

(* the visit list of the model is that list *)
Theorem visits_vlist : forall t m root uf, visits t m root uf true = vlist t m root uf.
Proof. intros t m root uf. apply visits_V. Qed.

Theorem visits_spec : forall t m root uf n, wf_tree t -> wf_groups (m_groups m) ->
  (In n (visits t m root uf true) <->
   In n t /\ (exists r, r <> [] /\ n_path n = root ++ r) /\ matches_node m (n_path n) (dsel uf n) (length root) = true).
Proof.
  intros t m root uf n Ht Hm.
  destruct (traversal_eq_bruteforce_lemma (fun _ => True)
              (fun c ks k _ Hk Hc => proj1 (ckeys_spec c ks Hk k) Hc) (fun c ks k Hk Hi => proj2 (ckeys_spec c ks Hk k) Hi)
              t m root uf (wf_tree_tree_wf t Ht) (wf_groups_matcher_wf m Hm)) as [_ H].
  { intros n0 _. apply Forall_forall. auto. }
  rewrite H. unfold selected, dsel.
  split; intros [Hn [[r [Hr Hp]] Hs]]; (split; [exact Hn|split; [now exists r|]]);
    rewrite Hp, ?skipn_root in *; now rewrite matches_node_rel in *.
Qed.

(* no path is visited twice (whatever the guard) *)
Theorem vlist_nodup_paths : forall t m root uf, wf_tree t -> NoDup (map n_path (vlist t m root uf)).
Proof. intros t m root uf Ht. apply V_nodup. now apply wf_tree_tree_wf. Qed.

Theorem visits_nodup : forall t m root uf, wf_tree t -> NoDup (visits t m root uf true).
Proof using L. intros t m root uf Ht. rewrite visits_vlist. apply (NoDup_map_inv n_path). now apply vlist_nodup_paths. Qed.

Theorem vlist_spec : forall t m root uf n, wf_tree t -> wf_groups (m_groups m) ->
  In n (vlist t m root uf) <->
  In n t /\ (exists r, r <> [] /\ n_path n = root ++ r) /\ matches_node m (n_path n) (dsel uf n) (length root) = true.
Proof. intros t m root uf n. rewrite <- visits_vlist. apply visits_spec. Qed.

Theorem vlist_nodup : forall t m root uf, wf_tree t -> NoDup (vlist t m root uf).
Proof using L. intros t m root uf. rewrite <- visits_vlist. apply visits_nodup. Qed.

End Top.
