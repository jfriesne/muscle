(* Refl/IndexLogProofs.v -- C13: the logged output of a command (st_out: what the correspondence run compares with
   the PR_RESULT_INDEXUPDATED Messages the real clients receive) is exactly what enters the replayed history.
   That much holds from any state with nothing pending, for either configuration.  With the invariants:
   replaying a step's logged stream for (client, node) onto the replica the client held before the step
   yields the server's index after the step. *)
From Coq Require Import List Arith Bool.
Import ListNotations.
From Muscle Require Import Refl.Index Refl.IndexProofs Refl.IndexModel Refl.IndexModelProofs Refl.IndexRunProofs.

(* nothing a client can see or holds has changed *)
Definition same_client (st st' : state) : Prop :=
  st_out st' = st_out st /\ st_hist st' = st_hist st /\ st_mirror st' = st_mirror st /\ st_subs st' = st_subs st.

Lemma sc_refl : forall st, same_client st st.
Proof. intro st. repeat split; reflexivity. Qed.

Lemma sc_trans : forall a b c, same_client a b -> same_client b c -> same_client a c.
Proof. intros a b c (A1 & A2 & A3 & A4) (B1 & B2 & B3 & B4). repeat split; congruence. Qed.

Lemma sc_fold : forall (A : Type) (f : state -> A -> state) l st,
  (forall st a, same_client st (f st a)) -> same_client st (fold_left f l st).
Proof.
  intros A f l st H. apply (fold_left_inv _ _ (same_client st)); [|apply sc_refl].
  intros st' a H'. exact (sc_trans _ _ _ H' (H st' a)).
Qed.

Ltac sc := unfold same_client; repeat split; reflexivity.

Lemma sc_with_tree : forall st t, same_client st (with_tree st t).
Proof. intros. sc. Qed.

Lemma sc_prim_remove_entry : forall st p k, same_client st (prim_remove_entry st p k).
Proof.
  intros st p k. unfold prim_remove_entry. destruct (has_node (st_tree st) p); [|apply sc_refl].
  destruct (remove_index_entry (node_at st p) k). sc.
Qed.

Lemma sc_prim_remove_entry_at : forall st p pos, same_client st (prim_remove_entry_at st p pos).
Proof.
  intros st p pos. unfold prim_remove_entry_at. destruct (has_node (st_tree st) p); [|apply sc_refl].
  destruct (remove_index_entry_at (node_at st p) pos). sc.
Qed.

Lemma sc_prim_insert_entry_at : forall st s p pos k, same_client st (prim_insert_entry_at st s p pos k).
Proof.
  intros st s p pos k. unfold prim_insert_entry_at.
  match goal with |- same_client _ (if ?b then _ else _) => destruct b end; [|apply sc_refl].
  destruct (insert_index_entry_at (kids_of (st_tree st) p) (node_at st p) pos k). sc.
Qed.

Lemma sc_prim_insert_ordered : forall st s p b o, same_client st (prim_insert_ordered st s p b o).
Proof.
  intros st s p b o. unfold prim_insert_ordered. destruct (own s p && has_node (st_tree st) p); [|apply sc_refl].
  destruct (insert_ordered_child (kids_of (st_tree st) p) (node_at st p) b o) as [[n' nm] ops].
  destruct (has_node (st_tree st) (p ++ [nm])); [apply sc_refl | sc].
Qed.

Lemma sc_prim_reorder : forall cfg st s p c b, same_client st (prim_reorder cfg st s p c b).
Proof.
  intros cfg st s p c b. unfold prim_reorder.
  match goal with |- same_client _ (if ?b then _ else _) => destruct b end; [|apply sc_refl].
  destruct (reorder_child (kids_of (st_tree st) p) (node_at st p) c b). destruct (fix_reorder_ipres cfg); sc.
Qed.

Lemma sc_remove_child_rec : forall st v, same_client st (remove_child_rec st v).
Proof.
  intros st v. unfold remove_child_rec. destruct (has_node (st_tree st) v); [|apply sc_refl].
  eapply sc_trans; [apply sc_fold; intros; apply sc_fold; intros; apply sc_prim_remove_entry|].
  eapply sc_trans; [apply sc_prim_remove_entry | apply sc_with_tree].
Qed.

Lemma sc_copy_index : forall cfg l st dst w, same_client st (copy_index cfg st dst l w).
Proof.
  intros cfg l. induction l as [|nm rest IH]; intros st dst w; [apply sc_refl|]. cbn [copy_index].
  destruct (mem nm (kids_of (st_tree st) dst)); [|apply IH].
  set (st0 := if fix_clone cfg then prim_remove_entry st dst nm else st).
  assert (H0 : same_client st st0) by (unfold st0; destruct (fix_clone cfg); [apply sc_prim_remove_entry | apply sc_refl]).
  destruct (insert_index_entry_at (kids_of (st_tree st0) dst) (node_at st0 dst) w nm) as [n' ops].
  eapply sc_trans; [exact H0|]. eapply sc_trans; [|apply IH]. sc.
Qed.

Lemma handle_same : forall cfg st s c, mutating c = true -> same_client st (handle cfg st s c).
Proof.
  intros cfg st s c H. apply (handle_keeps cfg (same_client st)); try exact H; try apply sc_refl;
    intros; (eapply sc_trans; [eassumption|]).
  - (* add_node *) apply sc_with_tree.
  - apply sc_prim_remove_entry.
  - apply sc_prim_insert_ordered.
  - apply sc_prim_reorder.
  - apply sc_remove_child_rec.
  - apply sc_prim_remove_entry_at.
  - apply sc_prim_insert_entry_at.
  - (* set_refl *) sc.
  - (* the copy step of clone *) destruct (fix_clone cfg); [eapply sc_trans; [apply sc_copy_index | sc] | apply sc_copy_index].
Qed.

Lemma fold_deliver_out : forall evs st, st_out (fold_left deliver1 evs st) = st_out st ++ evs.
Proof.
  induction evs as [|[[s p] o] evs IH]; intro st; simpl; [symmetry; apply app_nil_r|].
  rewrite IH. simpl. rewrite <- app_assoc. reflexivity.
Qed.

(* the commands after which every client still holds what it held (no unsubscription, no departure) *)
Definition log_cmd (c : cmd) : bool :=
  match c with CUnsubscribe _ | CUnsubscribeAll | CDetach => false | _ => true end.

Definition log_spec (st st' : state) : Prop :=
  exists new, st_out st' = st_out st ++ new /\
    (forall s' p, subscribed st' s' p = true -> st_hist st' s' p = st_hist st s' p ++ pend_for new s' p) /\
    (forall s' p, subscribed st s' p = true -> subscribed st' s' p = true).

Lemma deliver_log : forall st st0 evs, st_out st0 = st_out st -> st_hist st0 = st_hist st ->
  (forall s' p, subscribed st s' p = true -> subscribed st0 s' p = true) ->
  log_spec st (fold_left deliver1 evs st0).
Proof.
  intros st st0 evs Ho Hh Hmono. destruct (fold_deliver_fields evs st0) as (_ & _ & C & _).
  exists evs. split; [rewrite fold_deliver_out, Ho; reflexivity|].
  split; intros s' p Hs; rewrite (subscribed_subs st0 _ s' p C) in *; [|apply Hmono, Hs].
  destruct (fold_deliver_client evs st0 s' p) as [_ Eh]. rewrite Eh, Hs, Hh. reflexivity.
Qed.

Lemma flush_handle_log : forall cfg s st c, mutating c = true -> log_spec st (flush (handle cfg st s c)).
Proof.
  intros cfg s st c Hm. destruct (handle_same cfg st s c Hm) as (S1 & S2 & _ & S4).
  apply deliver_log; [exact S1 | exact S2 | intros s' p Hs; rewrite <- Hs; apply subscribed_subs, S4].
Qed.

Lemma flush_getdata_log : forall st0 st s pat, st_pend st0 = [] ->
  st_out st0 = st_out st -> st_hist st0 = st_hist st ->
  (forall s' p, subscribed st s' p = true -> subscribed st0 s' p = true) ->
  log_spec st (flush (getdata st0 s pat)).
Proof.
  intros st0 st s pat Hp Ho Hh Hmono. unfold flush, getdata. rewrite getdata_as_fold.
  set (st1 := fold_left deliver1 _ st0).
  assert (F : st_pend st1 = []) by (rewrite <- Hp; apply fold_deliver_fields).
  rewrite F. apply (deliver_log st st0); assumption.
Qed.

(* One command from a state with nothing pending (whatever else holds of it, and for either configuration).
   [new] is what the command appended to the logged output.  For every (client, node) subscribed afterwards,
   exactly the part of [new] addressed to it entered its history -- hence its replica. *)
Lemma exec_log_pend : forall cfg s st c, st_pend st = [] -> log_cmd c = true -> log_spec st (exec cfg s st c).
Proof.
  intros cfg s st c Hp Hlog. rewrite exec_eq.
  assert (Hsame : log_spec st st) by (apply (deliver_log st st []); auto).
  destruct c; try discriminate Hlog; unfold guarded;
    try (destruct ((s <? st_n st) && has_node (st_tree st) [NS s]); [|exact Hsame]);
    try (apply flush_handle_log; reflexivity).
  - (* CSubscribe *)
    cbn [handle]. unfold subscribe. apply flush_getdata_log; try reflexivity; [exact Hp|].
    intros s' p Hs. unfold subscribed. simpl.
    destruct (Nat.eqb_spec s' s) as [->|]; [|exact Hs].
    rewrite subscribed_in_add. unfold subscribed in Hs. rewrite Hs. reflexivity.
  - (* CGetData *)
    cbn [handle]. apply flush_getdata_log; try reflexivity; [exact Hp | auto].
  - (* CAttach *)
    apply (deliver_log st (attach st) []); auto.
Qed.

Theorem exec_log : forall cfg s st c, Inv st -> log_cmd c = true -> log_spec st (exec cfg s st c).
Proof. intros cfg s st c (_ & _ & Hp). apply exec_log_pend, Hp. Qed.

Lemma exec_pend : forall cfg s st c, st_pend st = [] -> st_pend (exec cfg s st c) = [].
Proof.
  intros cfg s st c Hp. rewrite exec_eq.
  assert (G : st_pend (guarded cfg s st c) = []).
  { unfold guarded. destruct ((s <? st_n st) && has_node (st_tree st) [NS s]); [|exact Hp].
    assert (Hf : st_pend (flush (handle cfg st s c)) = []).
    { unfold flush. apply (fold_deliver_fields _ (with_pend _ [])). }
    destruct c; exact Hf. }
  destruct c; exact G || exact Hp.
Qed.

(* for the pairs that were subscribed before: composable over the commands of a step *)
Definition cont_spec (st st' : state) : Prop :=
  exists new, st_out st' = st_out st ++ new /\
    forall s' p, subscribed st s' p = true ->
      subscribed st' s' p = true /\ st_hist st' s' p = st_hist st s' p ++ pend_for new s' p.

Lemma log_cont : forall a b, log_spec a b -> cont_spec a b.
Proof.
  intros a b (new & O & H & S). exists new. split; [exact O|]. intros s' p Hs. split; [apply S, Hs | apply H, S, Hs].
Qed.

Lemma cont_trans : forall a b c, cont_spec a b -> cont_spec b c -> cont_spec a c.
Proof.
  intros a b c (n1 & O1 & H1) (n2 & O2 & H2). exists (n1 ++ n2).
  split; [rewrite O2, O1, app_assoc; reflexivity|].
  intros s' p Hs. destruct (H1 s' p Hs) as [Sb Hb]. destruct (H2 s' p Sb) as [Sc Hc].
  split; [exact Sc|]. rewrite Hc, Hb, pend_for_app, app_assoc. reflexivity.
Qed.

(* One step (a Message of one client: a command or a batch) without unsubscription or departure: for every
   (client, node) subscribed before it, what the step logged for that pair is what was appended to its history. *)
Theorem step_log : forall cfg st sc, st_pend st = [] -> forallb log_cmd (snd sc) = true ->
  let st' := step cfg st sc in
  forall s' p, subscribed st s' p = true ->
    subscribed st' s' p = true /\ st_hist st' s' p = st_hist st s' p ++ pend_for (st_out st') s' p.
Proof.
  intros cfg st [s cmds] Hp Hall st'. unfold st', step. simpl fst. simpl snd in *.
  assert (H : forall l st0, st_pend st0 = [] -> forallb log_cmd l = true ->
                cont_spec st0 (fold_left (exec cfg s) l st0)).
  { induction l as [|c l IH]; intros st0 Hp0 Hl; [apply log_cont, (deliver_log st0 st0 []); auto|].
    simpl in Hl. apply andb_true_iff in Hl. destruct Hl as [Hc0 Hl]. simpl.
    apply (cont_trans st0 (exec cfg s st0 c)); [apply log_cont, exec_log_pend; assumption|].
    apply IH; [apply exec_pend, Hp0 | exact Hl]. }
  destruct (H cmds (with_out st []) Hp Hall) as (new & O & Hh).
  intros s' p Hs. simpl in O. rewrite O. apply (Hh s' p Hs).
Qed.

(* The observable form: for a step as above from a boundary state and every (client, node) subscribed before it,
   the stream the step logs for the pair -- which the correspondence run compares with the
   PR_RESULT_INDEXUPDATED Messages the real client receives -- fits the replica held before the step and
   replays it into the server's index after the step. *)
Lemma Inv_step_replays : forall cfg st sc s p, cfg_ok cfg -> Inv st ->
  let st' := step cfg st sc in
  forallb log_cmd (snd sc) = true -> subscribed st s p = true ->
  logs (pend_for (st_out st') s p) (st_mirror st s p) (index_at (st_tree st') p).
Proof.
  intros cfg st sc s p Hc HI st' Hall Hs.
  pose proof (step_Inv cfg st sc Hc HI) as HI'. fold st' in HI'.
  destruct (step_log cfg st sc (proj2 (proj2 HI)) Hall s p Hs) as [Hs' Hh]. fold st' in Hs', Hh.
  destruct (mA_hlogs st' s p (proj1 HI')) as [F R]. rewrite Hh in F, R.
  rewrite ops_fit_app, (mA_hfit st (proj1 HI)), (mA_hist st (proj1 HI)) in F.
  rewrite replay_app, (mA_hist st (proj1 HI)), (Inv_mirror st' s p HI' Hs') in R. split; assumption.
Qed.

Theorem step_replays : forall n steps sc s p,
  let st := run cfg_fixed n steps in
  let st' := step cfg_fixed st sc in
  forallb log_cmd (snd sc) = true -> subscribed st s p = true ->
  ops_fit (pend_for (st_out st') s p) (st_mirror st s p) = true /\
  replay (pend_for (st_out st') s p) (st_mirror st s p) = index_at (st_tree st') p.
Proof.
  intros n steps sc s p. apply Inv_step_replays; [apply cfg_fixed_ok | apply run_Inv, cfg_fixed_ok].
Qed.
