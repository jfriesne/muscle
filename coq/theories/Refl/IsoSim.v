(* Refl/IsoSim.v -- C06, as-if-never: the simulation between the "full" run F (session s takes part) and the "erased" run E
   (s's events removed).  [rel s F E]: E's tree body is F's tree body without s's subtree and marks (Refl/IsoSimBase.v), and
   E's sessions are F's sessions other than s, with the same identity, subscriptions and limits.  Every command of another
   session, executed on both sides, keeps the relation. *)
From Coq Require Import List NArith ZArith Bool Arith Lia.
From Muscle Require Import Refl.Base Refl.BaseProofs Refl.Tree Refl.TreeProofs Refl.Matcher Refl.MatcherProofs
     Refl.Traverse Refl.TraverseSpec Refl.Session Refl.Server Refl.ServerProofs Refl.IsoModel Refl.IsoBase Refl.IsoFrame
     Refl.IsoSimBase.
Import ListNotations.

Section Sim.
Context {M : MatchOps} {L : MatchLaws M}.
Variable fx : fixes.
Hypothesis guard_on : fx_guard fx = true.
Variable s : sid.

Definition sdir (F : server) : option path := option_map session_dir (get_session F s).

Definition others (l : list session) : list session := filter (fun x => negb (N.eqb (s_id x) s)) l.

(* E's sessions are F's sessions other than s, with the same id, host, name, subscriptions and update limit *)
Definition rel_sess (F E : server) : Prop := all_params E = map sparams (others (sv_sessions F)).

Definition rel (F E : server) : Prop := rel_tree s (sdir F) (sv_tree F) (sv_tree E) /\ rel_sess F E.

(* ------------------------------------------------------------------ parameters of sessions *)

Lemma sparams_parts : forall x y : session, sparams x = sparams y ->
  s_id x = s_id y /\ s_host x = s_host y /\ s_name x = s_name y /\ s_subs x = s_subs y /\ s_max x = s_max y.
Proof.
  intros x y H. unfold sparams in H.
  pose proof (f_equal (fun c => fst (fst (fst (fst c)))) H) as H1. pose proof (f_equal (fun c => snd (fst (fst (fst c)))) H) as H2.
  pose proof (f_equal (fun c => snd (fst (fst c))) H) as H3. pose proof (f_equal (fun c => snd (fst c)) H) as H4.
  pose proof (f_equal snd H) as H5. cbn in *. repeat split; assumption.
Qed.

Lemma map_sparams_cons : forall (x y : session) l l', map sparams (y :: l') = map sparams (x :: l) ->
  sparams y = sparams x /\ map sparams l' = map sparams l.
Proof.
  intros x y l l' H. cbn [map] in H. split.
  - exact (f_equal (fun l0 => hd (sparams x) l0) H).
  - exact (f_equal (@tl _) H).
Qed.

Lemma params_core : forall l l', map sparams l' = map sparams l -> map core l' = map core l.
Proof. apply (map_proj _ _ _ sparams core fst). reflexivity. Qed.

Lemma same_state_core : forall sv sv', same_state sv sv' -> same_core sv sv'.
Proof. intros sv sv' [H1 H2]. split; [exact H1|]. now apply params_core. Qed.

Lemma find_session_params : forall l l' t, map sparams l' = map sparams l ->
  match find_session l t, find_session l' t with
  | Some a, Some b => sparams b = sparams a
  | None, None => True
  | _, _ => False
  end.
Proof.
  intros l l' t H. pose proof (find_session_proj _ sparams (fun c => fst (fst (fst (fst c)))) (fun _ => eq_refl) l l' t H) as E.
  destruct (find_session l t), (find_session l' t); cbn in E; try discriminate; [congruence|exact I].
Qed.

(* where s lives is read off the parameters of the session with id s *)
Lemma sdir_lookup : forall F F', option_map sparams (get_session F' s) = option_map sparams (get_session F s) -> sdir F' = sdir F.
Proof.
  intros F F' E. unfold sdir. destruct (get_session F' s) as [b|], (get_session F s) as [a|]; cbn in *; try discriminate; [|reflexivity].
  injection E as _ H2 H3 _ _. unfold session_dir. now rewrite H2, H3.
Qed.

Lemma sdir_params : forall F F', all_params F' = all_params F -> sdir F' = sdir F.
Proof.
  intros F F' H. apply sdir_lookup. now apply (find_session_proj _ sparams (fun c => fst (fst (fst (fst c)))) (fun _ => eq_refl)).
Qed.

Lemma others_params_eq : forall l l', map sparams l' = map sparams l -> map sparams (others l') = map sparams (others l).
Proof. apply (filter_proj _ _ sparams _ (fun c => negb (N.eqb (fst (fst (fst (fst c)))) s))). reflexivity. Qed.

(* ------------------------------------------------------------------ what does not matter *)

Lemma rel_same_state : forall F F' E E', same_state F F' -> same_state E E' -> rel F E -> rel F' E'.
Proof.
  intros F F' E E' [HtF HsF] [HtE HsE] [R1 R2]. split.
  - rewrite (sdir_params F F' HsF), HtF, HtE. exact R1.
  - unfold rel_sess in *. rewrite HsE, R2. symmetry. now apply others_params_eq.
Qed.

Lemma sdir_set_tree : forall F t, sdir (set_tree F t) = sdir F.
Proof. reflexivity. Qed.

(* the same new tree on both sides *)
Lemma rel_set_tree : forall F E tF tE, rel F E -> rel_tree s (sdir F) tF tE -> rel (set_tree F tF) (set_tree E tE).
Proof. intros F E tF tE [_ R2] R. split; [exact R|exact R2]. Qed.

(* a relation put together from its parts *)
Lemma rel_parts : forall F E F' E' tF' tE', rel F E ->
  sv_tree F' = tF' -> sv_tree E' = tE' -> all_params F' = all_params F -> all_params E' = all_params E ->
  rel_tree s (sdir F) tF' tE' -> rel F' E'.
Proof.
  intros F E F' E' tF' tE' [_ R2] HF HE HcF HcE R. split.
  - rewrite (sdir_params F F' HcF), HF, HE. exact R.
  - unfold rel_sess in *. rewrite HcE, R2. symmetry. now apply others_params_eq.
Qed.

(* ------------------------------------------------------------------ sessions *)

Lemma find_session_others : forall l t, t <> s -> find_session (others l) t = find_session l t.
Proof. intros. unfold others. apply find_session_filter. congruence. Qed.

Lemma rel_get_session : forall F E t, rel_sess F E -> t <> s ->
  match get_session F t, get_session E t with
  | Some a, Some b => sparams b = sparams a
  | None, None => True
  | _, _ => False
  end.
Proof.
  intros F E t R Ht. unfold get_session. rewrite <- (find_session_others (sv_sessions F) t Ht).
  apply find_session_params. exact R.
Qed.

Lemma rel_no_s : forall F E, rel_sess F E -> get_session E s = None.
Proof.
  intros F E R. unfold get_session. pose proof (find_session_params (others (sv_sessions F)) (sv_sessions E) s R) as H.
  unfold others in H. rewrite find_session_filter_self in H. destruct (find_session (sv_sessions E) s); [contradiction|reflexivity].
Qed.

(* updating session t <> s alike on both sides, by a function whose effect on the parameters depends on the parameters only *)
Lemma rel_sess_upd : forall F E t (f : session -> session), rel_sess F E -> t <> s ->
  (forall x, s_id (f x) = s_id x) ->
  (forall x y, sparams x = sparams y -> sparams (f x) = sparams (f y)) ->
  rel_sess (upd_session F t f) (upd_session E t f).
Proof.
  intros F E t f R Ht Hid Hf. unfold rel_sess, all_params, upd_session in *. cbn [sv_sessions].
  revert R. generalize (sv_sessions E) as lE. induction (sv_sessions F) as [|x lF IH]; intros lE R.
  - cbn in *. destruct lE; [reflexivity|discriminate].
  - cbn [map others filter] in *. destruct (N.eqb (s_id x) s) eqn:Exs.
    + assert (Ext : N.eqb (s_id x) t = false).
      { apply N.eqb_neq. intros Hx. apply N.eqb_eq in Exs. apply Ht. rewrite <- Hx. exact Exs. }
      rewrite Ext, Exs. cbn [negb] in *. now apply IH.
    + cbn [negb] in R. destruct lE as [|y lE]; [discriminate|].
      apply map_sparams_cons in R as [H1 H2]. fold (others lF) in H2.
      pose proof (sparams_parts _ _ H1) as [Hy _].
      cbn [map]. rewrite Hy. destruct (N.eqb (s_id x) t) eqn:Ext.
      * rewrite Hid, Exs. cbn [negb map]. f_equal; [now apply Hf|now apply IH].
      * rewrite Exs. cbn [negb map]. f_equal; [exact H1|now apply IH].
Qed.

Lemma sdir_upd_other : forall F t f, t <> s -> (forall x, s_id (f x) = s_id x) -> sdir (upd_session F t f) = sdir F.
Proof.
  intros F t f Ht Hid. unfold sdir. rewrite get_session_upd by exact Hid.
  assert (Et : N.eqb t s = false) by (apply N.eqb_neq; exact Ht). now rewrite Et.
Qed.

Lemma rel_upd : forall F E t (f : session -> session), rel F E -> t <> s ->
  (forall x, s_id (f x) = s_id x) -> (forall x y, sparams x = sparams y -> sparams (f x) = sparams (f y)) ->
  rel (upd_session F t f) (upd_session E t f).
Proof.
  intros F E t f [R1 R2] Ht Hid Hf. split; [|now apply rel_sess_upd]. rewrite sdir_upd_other by assumption. exact R1.
Qed.

(* ------------------------------------------------------------------ the table of a new node *)

Definition nnt_step (p : path) (tb : subtbl) (ss : session) : subtbl :=
  tbl_adjust tb (s_id ss) (i32_of_u32 (u32 (match_count (s_subs ss) p None 0))).

Lemma nnt_params : forall p l l' tb, map sparams l' = map sparams l -> fold_left (nnt_step p) l' tb = fold_left (nnt_step p) l tb.
Proof.
  intros p. induction l as [|x l IH]; intros [|y l'] tb H; try discriminate; [reflexivity|].
  apply map_sparams_cons in H as [H1 H2]. cbn [fold_left].
  apply sparams_parts in H1 as [Hi [_ [_ [Hs _]]]]. unfold nnt_step at 2 4. rewrite Hi, Hs. now apply IH.
Qed.

Lemma nnt_others : forall p l tb, tbl_without s (fold_left (nnt_step p) l tb) = fold_left (nnt_step p) (others l) (tbl_without s tb).
Proof.
  intros p. induction l as [|x l IH]; intros tb; cbn [fold_left others filter]; [reflexivity|].
  rewrite IH. destruct (N.eqb (s_id x) s) eqn:E; cbn [negb].
  - apply N.eqb_eq in E. unfold nnt_step at 2. rewrite E, tbl_without_adjust. reflexivity.
  - cbn [fold_left]. unfold nnt_step at 2 4. rewrite tbl_without_adjust_other; [reflexivity|]. now apply N.eqb_neq.
Qed.

Lemma rel_new_node_table : forall F E p, rel_sess F E -> tbl_without s (new_node_table F p) = new_node_table E p.
Proof.
  intros F E p R. unfold new_node_table. change (fun tb ss => tbl_adjust tb (s_id ss) (i32_of_u32 (u32 (match_count (s_subs ss) p None 0)))) with (nnt_step p).
  rewrite nnt_others. cbn [tbl_without filter]. symmetry. now apply nnt_params.
Qed.

(* ------------------------------------------------------------------ SETDATA *)

Lemma hidden_app : forall od pp r, hidden od pp = false -> (forall r', hidden od (pp ++ r') = false) -> hidden od (pp ++ r) = false.
Proof. intros. auto. Qed.

Lemma set_data_loop_sim : forall cl F E by_ pp d dc dw q,
  rel F E -> 2 <= length pp -> (forall r, hidden (sdir F) (pp ++ r) = false) ->
  rel (set_data_loop F by_ pp cl d dc dw q) (set_data_loop E by_ pp cl d dc dw q).
Proof.
  induction cl as [|k rest IH]; intros F E by_ pp d dc dw q R Hl Hh; cbn [set_data_loop]; [exact R|].
  assert (Hl' : 2 <= length (pp ++ [k])) by (rewrite app_length; cbn; lia).
  assert (Hh' : forall r, hidden (sdir F) ((pp ++ [k]) ++ r) = false) by (intros r; rewrite <- app_assoc; apply Hh).
  destruct R as [R1 R2].
  rewrite (rel_find s (sdir F) (sv_tree F) (sv_tree E) (pp ++ [k]) R1 Hl' (Hh [k])).
  destruct (find_node (sv_tree F) (pp ++ [k])) as [n|]; cbn [option_map].
  - destruct rest as [|k2 rest'].
    + destruct dw; [now split|].
      assert (R' : rel (set_tree F (set_data (sv_tree F) (pp ++ [k]) d)) (set_tree E (set_data (sv_tree E) (pp ++ [k]) d))).
      { apply rel_set_tree; [now split|]. now apply rel_set_data. }
      destruct q; [exact R'|]. rewrite strip_data. eapply rel_same_state; [apply notify_changed_same|apply notify_changed_same|exact R'].
    + apply IH; [now split|exact Hl'|exact Hh'].
  - destruct dc; [now split|]. destruct (Nat.leb max_node_depth (length pp)); [now split|].
    assert (G : forall d0,
              let F1 := set_tree F (add_node (sv_tree F) (mkNode (pp ++ [k]) d0 (new_node_table F (pp ++ [k])))) in
              let E1 := set_tree E (add_node (sv_tree E) (mkNode (pp ++ [k]) d0 (new_node_table E (pp ++ [k])))) in
              rel (if q then F1 else notify_changed F1 by_ (pp ++ [k]) d0 None false)
                  (if q then E1 else notify_changed E1 by_ (pp ++ [k]) d0 None false) /\
              sdir (if q then F1 else notify_changed F1 by_ (pp ++ [k]) d0 None false) = sdir F).
    { intros d0 F1 E1.
      assert (R' : rel F1 E1).
      { apply rel_set_tree; [now split|]. apply rel_add; [exact R1| |].
        - unfold strip. cbn [n_path n_data n_subs]. f_equal. symmetry. now apply rel_new_node_table.
        - unfold vis, nonhost. cbn [n_path]. rewrite (Hh [k]). apply Nat.leb_le in Hl'. now rewrite Hl'. }
      split.
      - destruct q; [exact R'|]. eapply rel_same_state; [apply notify_changed_same|apply notify_changed_same|exact R'].
      - destruct q; [reflexivity|]. rewrite (sdir_params _ _ (proj2 (notify_changed_same _ _ _ _ _ _))). reflexivity. }
    destruct rest as [|k2 rest'].
    + apply (G d).
    + destruct (G empty_payload) as [G1 G2]. apply IH; [exact G1|exact Hl'|]. intros r. rewrite G2. apply Hh'.
Qed.

(* the directory of another session and everything below it is visible *)
Lemma other_dir_visible : forall B F t st, inv B F -> t <> s -> get_session F t = Some st ->
  forall r, hidden (sdir F) (session_dir st ++ r) = false.
Proof.
  intros B F t st I Ht Hst r. unfold sdir. destruct (get_session F s) as [ss|] eqn:Hss; [|reflexivity]. cbn [option_map hidden].
  destruct (is_prefix (session_dir ss) (session_dir st ++ r)) eqn:E; [|reflexivity]. exfalso.
  apply is_prefix_spec in E as [r' Hr']. unfold session_dir in Hr'. cbn in Hr'. injection Hr' as H1 H2 _.
  apply find_session_some in Hss as [Hin1 Hid1]. apply find_session_some in Hst as [Hin2 Hid2].
  assert (st = ss); [|subst; congruence].
  apply (NoDup_map_inj _ _ session_dir (sv_sessions F)); [apply (inv_dirs_nodup _ _ _ I)|exact Hin2|exact Hin1|].
  unfold session_dir. congruence.
Qed.

(* ------------------------------------------------------------------ REMOVEDATA *)

Lemma remove_subtree_params : forall sv by_ p notify, all_params (remove_subtree sv by_ p notify) = all_params sv.
Proof.
  intros sv by_ p notify. apply (remove_subtree_rule (fun a b => all_params b = all_params a) (fun _ => eq_refl) ltac:(congruence) []);
    intros; [reflexivity|apply notify_changed_same|reflexivity].
Qed.

Lemma remove_cb_strip : forall acc n, remove_cb acc (strip s n) = remove_cb acc n.
Proof. reflexivity. Qed.

Lemma do_remove_data_sim : forall F E stF stE keys q,
  rel F E -> sparams stE = sparams stF -> wf_tree (sv_tree F) -> wf_tree (sv_tree E) ->
  (forall r, hidden (sdir F) (session_dir stF ++ r) = false) ->
  rel (do_remove_data fx F stF keys q) (do_remove_data fx E stE keys q).
Proof.
  intros F E stF stE keys q R Hc WF WE Hv. unfold do_remove_data.
  apply sparams_parts in Hc as [Hi [Hc2 [Hc3 _]]].
  assert (Hd : session_dir stE = session_dir stF) by (unfold session_dir; now rewrite Hc2, Hc3).
  rewrite Hd, Hi.
  assert (Hrs : do_traversal remove_cb (sv_tree E) (m_of_list keys) (session_dir stF) true (fx_guard fx) [] =
                do_traversal remove_cb (sv_tree F) (m_of_list keys) (session_dir stF) true (fx_guard fx) [])
    by (apply (traversal_sim _ remove_cb s (sdir F)); [exact (proj1 R)|discriminate|apply remove_cb_strip|exact Hv]).
  rewrite Hrs. pose proof (remove_cb_collects_below (sv_tree F) (m_of_list keys) (session_dir stF) true (fx_guard fx)) as Hall.
  rewrite Forall_forall in Hall.
  (* the same visible subtrees are removed on both sides; the parameters, and so where s lives, stay *)
  match goal with |- rel ?X ?Y => enough (G : rel X Y /\ wf_tree (sv_tree X) /\ wf_tree (sv_tree Y) /\ sdir X = sdir F) by apply G end.
  apply (fold_sim _ _ _ (fun F' E' => rel F' E' /\ wf_tree (sv_tree F') /\ wf_tree (sv_tree E') /\ sdir F' = sdir F)); [|now split].
  intros p F' E' Hp [[R1 R2] [WF' [WE' Hsd]]]. apply Hall, is_prefix_spec in Hp as [r ->].
  rewrite (rel_has_node s (sdir F') _ _ _ R1); [|rewrite app_length; cbn; lia|rewrite Hsd; apply Hv].
  destruct (has_node (sv_tree F') _); [|now split].
  destruct (remove_subtree_spec F' (s_id stF) (session_dir stF ++ r) (negb q) WF') as [HtF _]; [discriminate|].
  destruct (remove_subtree_spec E' (s_id stF) (session_dir stF ++ r) (negb q) WE') as [HtE _]; [discriminate|].
  split; [apply (rel_parts F' E' _ _ _ _ (conj R1 R2) HtF HtE (remove_subtree_params _ _ _ _) (remove_subtree_params _ _ _ _)); now apply rel_prune|].
  rewrite HtF, HtE, (sdir_params F' _ (remove_subtree_params _ _ _ _)). split; [now apply wf_tree_prune|]. split; [now apply wf_tree_prune|exact Hsd].
Qed.

(* ------------------------------------------------------------------ subscriptions *)

Lemma sparams_set_subs : forall (g : matcher -> matcher) x y, sparams x = sparams y ->
  sparams (set_subs x (g (s_subs x))) = sparams (set_subs y (g (s_subs y))).
Proof. intros g x y H. apply sparams_parts in H as [H1 [H2 [H3 [H4 H5]]]]. unfold sparams. cbn. now rewrite H1, H2, H3, H4, H5. Qed.

Lemma strip_adj_other : forall t delta n, t <> s -> strip s (adj_node t delta n) = adj_node t delta (strip s n).
Proof.
  intros t delta n Ht. unfold strip, adj_node. cbn [n_path n_data n_subs]. f_equal. now apply tbl_without_adjust_other.
Qed.

(* marking the nodes of one of t's subscription paths, on both sides *)
Lemma mark_nodes_sim : forall od tF tE m t delta, rel_tree s od tF tE -> t <> s ->
  wf_tree tF -> wf_tree tE -> wf_groups (m_groups m) ->
  rel_tree s od (mark_nodes fx tF m t delta) (mark_nodes fx tE m t delta).
Proof.
  intros od tF tE m t delta R Ht WF WE Wm.
  rewrite (mark_nodes_spec fx guard_on tF m t delta WF Wm), (mark_nodes_spec fx guard_on tE m t delta WE Wm).
  apply rel_map; [exact R| | |].
  - intros n. destruct (matches_node _ _ _ _); reflexivity.
  - intros n. destruct (matches_node _ _ _ _); reflexivity.
  - intros n. rewrite strip_path. destruct (matches_node _ _ _ _); [now apply strip_adj_other|reflexivity].
Qed.

Lemma mark_nodes_wf : forall t m k delta, wf_tree t -> wf_groups (m_groups m) -> wf_tree (mark_nodes fx t m k delta).
Proof.
  intros t m k delta W Wm. rewrite (mark_nodes_spec fx guard_on t m k delta W Wm). apply wf_tree_map; [|exact W].
  intros n. destruct (matches_node _ _ _ _); reflexivity.
Qed.

Lemma subscribe_one_sim : forall F E t sf, rel F E -> t <> s -> wf_tree (sv_tree F) -> wf_tree (sv_tree E) ->
  rel (subscribe_one fx F t sf) (subscribe_one fx E t sf).
Proof.
  intros F E t sf R Ht WF WE. unfold subscribe_one.
  pose proof (rel_get_session F E t (proj2 R) Ht) as Hg.
  destruct (get_session F t) as [a|], (get_session E t) as [b|]; try contradiction; [|exact R].
  assert (Hsub : s_subs b = s_subs a) by (apply sparams_parts in Hg; tauto).
  destruct (fix_path (fst sf)) as [|c fp] eqn:Efp; [exact R|]. rewrite Hsub.
  destruct (m_get (s_subs a) (c :: fp)) as [e|].
  - apply rel_upd; [|exact Ht|reflexivity|].
    + destruct (snd sf), (e_flt e); try exact R; (eapply rel_same_state; [apply cqf_traversal_same|apply cqf_traversal_same|exact R]).
    + intros x y Hxy. apply (sparams_set_subs (fun m0 => m_set_filter m0 (c :: fp) (snd sf))). exact Hxy.
  - assert (R1 : rel (upd_session F t (fun x => set_subs x (m_put (s_subs x) (c :: fp) (snd sf))))
                     (upd_session E t (fun x => set_subs x (m_put (s_subs x) (c :: fp) (snd sf))))).
    { apply rel_upd; [exact R|exact Ht|reflexivity|].
      intros x y Hxy. apply (sparams_set_subs (fun m0 => m_put m0 (c :: fp) (snd sf))). exact Hxy. }
    apply rel_set_tree; [exact R1|]. rewrite sdir_upd_other by (try exact Ht; reflexivity).
    apply mark_nodes_sim; [exact (proj1 R)|exact Ht|exact WF|exact WE|]. apply single_wf. discriminate.
Qed.

Lemma subscribe_one_wf : forall sv t sf, wf_tree (sv_tree sv) -> wf_tree (sv_tree (subscribe_one fx sv t sf)).
Proof.
  intros sv t sf W. unfold subscribe_one. destruct (get_session sv t) as [a|]; [|exact W].
  destruct (fix_path (fst sf)) as [|c fp]; [exact W|]. destruct (m_get _ _) as [e|].
  - cbn [sv_tree upd_session]. destruct (snd sf), (e_flt e); try exact W; (rewrite (proj1 (cqf_traversal_same fx sv t _ _ _)); exact W).
  - cbn [sv_tree set_tree upd_session]. apply mark_nodes_wf; [exact W|]. apply single_wf. discriminate.
Qed.

Lemma unsubscribe_one_sim : forall F E t sp, rel F E -> t <> s -> wf_tree (sv_tree F) -> wf_tree (sv_tree E) ->
  rel (unsubscribe_one fx F t sp) (unsubscribe_one fx E t sp).
Proof.
  intros F E t sp R Ht WF WE. unfold unsubscribe_one.
  pose proof (rel_get_session F E t (proj2 R) Ht) as Hg.
  destruct (get_session F t) as [a|], (get_session E t) as [b|]; try contradiction; [|exact R].
  assert (Hsub : s_subs b = s_subs a) by (apply sparams_parts in Hg; tauto). rewrite Hsub.
  destruct (m_remove (s_subs a) (fix_path sp)) as [m'|] eqn:Em; [|exact R].
  assert (R1 : rel (upd_session F t (fun x => set_subs x m')) (upd_session E t (fun x => set_subs x m'))).
  { apply rel_upd; [exact R|exact Ht|reflexivity|].
    intros x y Hxy. apply (sparams_set_subs (fun _ => m')). exact Hxy. }
  apply rel_set_tree; [exact R1|]. rewrite sdir_upd_other by (try exact Ht; reflexivity).
  apply mark_nodes_sim; [exact (proj1 R)|exact Ht|exact WF|exact WE|].
  destruct (fix_path sp) as [|c fp]; [|apply single_wf; discriminate].
  unfold single, m_put. apply (proj1 wf_empty).
Qed.

Lemma unsubscribe_one_wf : forall sv t sp, wf_tree (sv_tree sv) -> wf_tree (sv_tree (unsubscribe_one fx sv t sp)).
Proof.
  intros sv t sp W. unfold unsubscribe_one. destruct (get_session sv t) as [a|]; [|exact W].
  destruct (m_remove _ _); [|exact W]. cbn [sv_tree set_tree upd_session]. apply mark_nodes_wf; [exact W|].
  destruct (fix_path sp) as [|c fp]; [|apply single_wf; discriminate]. unfold single, m_put. apply (proj1 wf_empty).
Qed.

(* ------------------------------------------------------------------ the command handler of Refl/Server.v *)

Lemma set_data_loop_params : forall cl sv by_ pp d dc dw q, all_params (set_data_loop sv by_ pp cl d dc dw q) = all_params sv.
Proof.
  intros. apply (set_data_loop_rule (fun a b => all_params b = all_params a) (fun _ => eq_refl) ltac:(congruence) []);
    intros; [reflexivity|reflexivity|apply notify_changed_same|reflexivity].
Qed.

Lemma get_session_params : forall F F' t a, all_params F' = all_params F -> get_session F t = Some a ->
  exists a', get_session F' t = Some a' /\ sparams a' = sparams a.
Proof.
  intros F F' t a H Ha. unfold get_session in *. pose proof (find_session_params (sv_sessions F) (sv_sessions F') t H) as Hc.
  rewrite Ha in Hc. destruct (find_session (sv_sessions F') t) as [a'|]; [|contradiction]. now exists a'.
Qed.

Lemma sparams_set_max : forall v x y, sparams x = sparams y -> sparams (set_max x v) = sparams (set_max y v).
Proof. intros v x y H. apply sparams_parts in H as [H1 [H2 [H3 [H4 H5]]]]. unfold sparams. cbn. now rewrite H1, H2, H3, H4. Qed.

Theorem handle_sim : forall c nest F E t B, small (B + cmd_budget c) -> inv B F -> inv B E -> rel F E -> t <> s ->
  rel (handle fx nest F t c) (handle fx nest E t c).
Proof.
  induction c as [flags items|q keys|q subs|subs|n| |keys|l IHl] using cmd_ind'; intros nest F E t B HB IF IE R Ht;
    pose proof (rel_get_session F E t (proj2 R) Ht) as Hg; cbn [handle];
    (destruct (get_session F t) as [a|] eqn:Ha; destruct (get_session E t) as [b|] eqn:Hb; try contradiction; [|exact R]).
  - (* item by item; t stays where it is, so its directory stays visible *)
    match goal with |- rel ?X ?Y => enough (G : rel X Y /\ all_params X = all_params F) by apply G end.
    apply (fold_sim _ _ _ (fun F' E' => rel F' E' /\ all_params F' = all_params F)); [|now split].
    intros it F' E' _ [R' HF']. destruct (get_session_params F F' t a HF' Ha) as [aF [HaF HpF]].
    pose proof (rel_get_session F' E' t (proj2 R') Ht) as Hg'. rewrite HaF in *.
    destruct (get_session E' t) as [aE|]; [|contradiction]. destruct (fst it) as [|k rest]; [now split|].
    apply sparams_parts in HpF as [P1 [P2 [P3 _]]]. apply sparams_parts in Hg' as [G1 [G2 [G3 _]]].
    unfold set_data_node, session_dir. rewrite G1, G2, G3, P2, P3. split; [|now rewrite set_data_loop_params].
    apply set_data_loop_sim; [exact R'|reflexivity|]. rewrite (sdir_params F F' HF'). now apply (other_dir_visible B F t a).
  - apply do_remove_data_sim; [exact R|exact Hg|apply (inv_tree _ _ _ IF)|apply (inv_tree _ _ _ IE)|now apply (other_dir_visible B F t a)].
  - assert (G1 : rel (fold_left (fun sv' sf => subscribe_one fx sv' t sf) subs F) (fold_left (fun sv' sf => subscribe_one fx sv' t sf) subs E)).
    { apply (fold_sim _ _ _ (fun F' E' => rel F' E' /\ wf_tree (sv_tree F') /\ wf_tree (sv_tree E'))).
      - intros sf F' E' _ [R' [WF' WE']]. split; [now apply subscribe_one_sim|split; now apply subscribe_one_wf].
      - split; [exact R|split; [apply (inv_tree _ _ _ IF)|apply (inv_tree _ _ _ IE)]]. }
    destruct q; [exact G1|]. destruct subs as [|sf subs']; [exact G1|].
    destruct (fx_push fx);
      [eapply rel_same_state; [eapply same_state_trans; [apply push_all_same|apply do_get_data_same]
                              |eapply same_state_trans; [apply push_all_same|apply do_get_data_same]|exact G1]
      |eapply rel_same_state; [apply do_get_data_same|apply do_get_data_same|exact G1]].
  - apply (fold_sim _ _ _ (fun F' E' => rel F' E' /\ wf_tree (sv_tree F') /\ wf_tree (sv_tree E'))).
    + intros sp F' E' _ [R' [WF' WE']]. split; [now apply unsubscribe_one_sim|split; now apply unsubscribe_one_wf].
    + split; [exact R|split; [apply (inv_tree _ _ _ IF)|apply (inv_tree _ _ _ IE)]].
  - apply rel_upd; [exact R|exact Ht|reflexivity|apply sparams_set_max].
  - apply rel_upd; [exact R|exact Ht|reflexivity|apply sparams_set_max].
  - eapply rel_same_state; [apply do_get_data_same|apply do_get_data_same|exact R].
  - set (sum := fix sum (l : list cmd) : nat := match l with [] => 0 | c' :: r => cmd_budget c' + sum r end).
    change (cmd_budget (CBatch l)) with (sum l) in HB. destruct (Nat.ltb _ _); [|exact R]. rewrite !batch_loop.
    clear Hg Ha Hb. revert F E B HB IF IE R. induction IHl as [|c l Hc _ IHl']; intros F E B HB IF IE R; [exact R|].
    change (sum (c :: l)) with (cmd_budget c + sum l) in HB. cbn [fold_left].
    assert (HBc : small (B + cmd_budget c)) by (eapply small_le; [|exact HB]; lia).
    apply (IHl' _ _ (B + cmd_budget c)).
    + now rewrite <- Nat.add_assoc.
    + eapply inv_same_core; [apply push_all_core|]. now apply (handle_inv fx guard_on).
    + eapply inv_same_core; [apply push_all_core|]. now apply (handle_inv fx guard_on).
    + eapply rel_same_state; [apply push_all_same|apply push_all_same|]. now apply (Hc (S nest) F E t B).
Qed.

End Sim.
