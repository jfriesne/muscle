(* Refl/IsoHosts.v -- C06: the host nodes are determined by the sessions.
   In every reachable state a node of depth 1 exists iff some attached session lives on that host, and it carries the empty
   Message.  (Together with the counting invariant of Refl/ServerProofs.v this fixes everything about host nodes, which is why
   the as-if-never relation of Refl/IsoSimBase.v can leave them out.) *)
From Coq Require Import List NArith ZArith Bool Arith Lia.
From Muscle Require Import Refl.Base Refl.BaseProofs Refl.Tree Refl.TreeProofs Refl.Matcher Refl.MatcherProofs
     Refl.Traverse Refl.TraverseSpec Refl.Session Refl.Server Refl.ServerProofs Refl.IsoModel Refl.IsoBase Refl.IsoFrame
     Refl.IsoDetach Refl.IsoRun.
Import ListNotations.

Section Hosts.
Context {M : MatchOps} {L : MatchLaws M}.
Variable fx : fixes.
Hypothesis guard_on : fx_guard fx = true.

Definition hosts_ok (sv : server) : Prop :=
  forall n, In n (sv_tree sv) -> length (n_path n) = 1 ->
            n_data n = empty_payload /\ exists x, In x (sv_sessions sv) /\ [s_host x] = n_path n.

Lemma hosts_ok_same_state : forall sv sv', same_state sv sv' -> hosts_ok sv -> hosts_ok sv'.
Proof.
  intros sv sv' [Ht Hp] H n Hn Hl. rewrite Ht in Hn. destruct (H n Hn Hl) as [Hd [x [Hx1 Hx2]]]. split; [exact Hd|].
  unfold all_params in Hp.
  assert (Hin : In (sparams x) (map sparams (sv_sessions sv'))) by (rewrite Hp; now apply in_map).
  apply in_map_iff in Hin as [y [Hy1 Hy2]]. exists y. split; [exact Hy2|].
  assert (s_host y = s_host x) by exact (f_equal (fun c => snd (fst (fst (fst c)))) Hy1). congruence.
Qed.

(* anything that respects some session's frame leaves the host nodes alone *)
Lemma hosts_ok_frame : forall sv sv' k dir, length dir = 2 -> frame k dir sv sv' -> hosts_ok sv -> hosts_ok sv'.
Proof.
  intros sv sv' k dir Hdl [Hfv [_ Hid]] H n' Hn' Hl.
  assert (Hout : outside dir n' = true).
  { unfold outside. apply negb_true_iff. destruct (is_prefix dir (n_path n')) eqn:E; [|reflexivity].
    apply is_prefix_length in E. lia. }
  assert (Hin : In (strip k n') (foreign_view k dir (sv_tree sv'))).
  { unfold foreign_view. apply in_map. apply filter_In. now split. }
  rewrite Hfv in Hin. unfold foreign_view in Hin. apply in_map_iff in Hin as [n [Hs Hn]]. apply filter_In in Hn as [Hn _].
  assert (Hp : n_path n = n_path n') by exact (f_equal n_path Hs). assert (Hd : n_data n = n_data n') by exact (f_equal n_data Hs).
  destruct (H n Hn) as [Hd0 [x [Hx1 Hx2]]]; [now rewrite Hp|]. split; [congruence|].
  unfold idents in Hid.
  assert (Hi : In (sident x) (map sident (sv_sessions sv'))) by (rewrite Hid; now apply in_map).
  apply in_map_iff in Hi as [y [Hy1 Hy2]]. exists y. split; [exact Hy2|].
  assert (s_host y = s_host x) by exact (f_equal (fun c => snd (fst c)) Hy1). congruence.
Qed.

Lemma hosts_ok_attach : forall sv k host nm, hosts_ok sv -> hosts_ok (attach sv k host nm).
Proof.
  intros sv k host nm H. unfold attach.
  set (ss := mkSession k host nm empty_matcher default_max_items None []).
  set (sv0 := mkServer (sv_tree sv) (sv_sessions sv ++ [ss]) (sv_dirty sv)).
  assert (H0 : hosts_ok sv0).
  { intros n Hn Hl. destruct (H n Hn Hl) as [Hd [x [Hx1 Hx2]]]. split; [exact Hd|]. exists x. split; [|exact Hx2].
    unfold sv0. cbn [sv_sessions]. apply in_or_app. now left. }
  match goal with |- hosts_ok (push_all (notify_changed (set_tree ?X _) _ _ _ _ _)) => set (sv1 := X) end.
  assert (H1 : hosts_ok sv1).
  { unfold sv1. destruct (has_node (sv_tree sv0) [host]); [exact H0|].
    eapply hosts_ok_same_state; [apply notify_changed_same|].
    intros n Hn Hl. cbn [sv_tree set_tree] in Hn. unfold add_node in Hn. apply in_app_or in Hn as [Hn|[Hn|[]]].
    - destruct (H0 n Hn Hl) as [Hd X]. split; [exact Hd|exact X].
    - subst n. cbn [n_data n_path]. split; [reflexivity|]. exists ss. split; [|reflexivity].
      cbn [sv_sessions set_tree sv0]. apply in_or_app. right. now left. }
  eapply hosts_ok_same_state; [eapply same_state_trans; [apply notify_changed_same|apply push_all_same]|].
  intros n Hn Hl. cbn [sv_tree set_tree] in Hn. unfold add_node in Hn. apply in_app_or in Hn as [Hn|[Hn|[]]].
  - exact (H1 n Hn Hl).
  - subst n. cbn [n_path length] in Hl. discriminate.
Qed.

Lemma hosts_ok_detach : forall B sv k, inv B sv -> hosts_ok sv -> hosts_ok (detach fx sv k).
Proof.
  intros B sv k I H. destruct (get_session sv k) as [ss|] eqn:Hs; [|unfold detach; now rewrite Hs].
  intros n' Hn' Hl. destruct (detach_rest_untouched fx guard_on B sv k ss I Hs n' Hn') as [n [Hn [Hp [Hd _]]]].
  destruct (H n Hn) as [Hd0 [x0 [Hx1 Hx2]]]; [now rewrite <- Hp|]. split; [congruence|].
  (* a witness among the remaining sessions: the old one, or -- if that was the departing session -- whoever keeps the host node *)
  assert (Hwit : exists x, In x (sv_sessions sv) /\ s_id x <> k /\ [s_host x] = n_path n').
  { destruct (N.eq_dec (s_id x0) k) as [E|E]; [|exists x0; repeat split; congruence].
    assert (x0 = ss) by (apply (session_unique sv k ss x0 (inv_ids _ _ _ I) Hs Hx1 E)). subst x0.
    assert (Hh : has_node (sv_tree (detach fx sv k)) [s_host ss] = true) by (apply has_node_spec; exists n'; split; [exact Hn'|congruence]).
    apply (detach_host fx guard_on B sv k ss I Hs) in Hh as [x [Hx [Hne Hh]]]. exists x. repeat split; auto. rewrite Hh. congruence. }
  destruct Hwit as [x [Hx1' [Hx2' Hx3]]]. destruct (detach_sessions fx guard_on B sv k ss I Hs) as [_ Hcore].
  assert (Hi : In (core x) (map core (sv_sessions (detach fx sv k))))
    by (rewrite Hcore; apply in_map, filter_In; split; [exact Hx1'|now apply negb_true_iff, N.eqb_neq]).
  apply in_map_iff in Hi as [y [Hy1 Hy2]]. exists y. split; [exact Hy2|]. rewrite <- Hx3. f_equal. unfold core in Hy1. congruence.
Qed.

Lemma hosts_ok_clear_ducks : forall B xs, small B -> inv B (xs_sv xs) -> hosts_ok (xs_sv xs) -> hosts_ok (xs_sv (clear_ducks fx xs)).
Proof.
  intros B xs HB I H. apply (clear_ducks_keeps fx (fun sv => inv B sv /\ hosts_ok sv)); [|now split].
  intros sv d [I' H']. split; [now apply detach_inv|now apply (hosts_ok_detach B)].
Qed.

Lemma hosts_ok_xstep : forall ev xs B, small (B + xev_budget ev) -> inv B (xs_sv xs) -> hosts_ok (xs_sv xs) ->
  hosts_ok (xs_sv (xstep fx xs ev)).
Proof.
  intros [k host nm bits|k|k c] xs B HB I H; cbn [xstep xev_budget] in *.
  - destruct (get_session _ _); [exact H|]. cbn [xs_sv xattach]. now apply hosts_ok_attach.
  - cbn [xs_sv xdetach]. now apply (hosts_ok_detach B).
  - destruct (get_session (xs_sv xs) k) as [a|] eqn:Ha; [|exact H]. cbv zeta.
    assert (I1 : inv (B + xcmd_budget c) (xs_sv (xhandle fx 0 xs k c))) by now apply (xhandle_inv fx guard_on).
    apply (hosts_ok_clear_ducks (B + xcmd_budget c)); [exact HB| |]; cbn [xs_sv with_sv].
    + eapply inv_same_core; [apply push_all_core|exact I1].
    + eapply hosts_ok_same_state; [apply push_all_same|].
      pose proof (xhandle_xframe fx c 0 xs k a Ha) as [Fr _].
      apply (hosts_ok_frame (xs_sv xs) _ k (session_dir a)); [reflexivity|exact Fr|exact H].
Qed.

Theorem reachable_hosts_ok : forall evs xs B, small (B + xrun_budget evs) -> inv B (xs_sv xs) -> hosts_ok (xs_sv xs) ->
  xwf_run fx xs evs -> hosts_ok (xs_sv (xrun fx evs xs)).
Proof.
  induction evs as [|ev evs IH]; intros xs B HB I H Hwf; cbn [xrun fold_left xrun_budget] in *; [exact H|].
  destruct Hwf as [Hw1 Hw2].
  assert (HBe : small (B + xev_budget ev)) by (eapply small_le; [|exact HB]; lia).
  apply (IH _ (B + xev_budget ev)); [now rewrite <- Nat.add_assoc| | |exact Hw2].
  - now apply (xstep_inv fx guard_on).
  - now apply (hosts_ok_xstep ev xs B).
Qed.

End Hosts.
