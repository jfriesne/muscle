(* Refl/MirrorExamples.v -- concrete histories over the instance of Concrete.v:
   * the premises of mirror_converges_partial are satisfiable by a non-trivial history (overlapping subscriptions,
     filters, payload changes across a filter, removal, unsubscribe, departure);
   * with any one of the three repairs switched off the statement FAILS: the witnesses of findings F12, F37
     (filter change of one of two overlapping subscriptions) and F38 (initial values overtaken by a pending removal). *)
From Coq Require Import List NArith ZArith Bool Arith Lia.
From Muscle Require Import Gen.Consts Refl.Base Refl.BaseProofs Refl.Matcher Refl.Session Refl.Server
     Refl.ServerProofs Refl.Mirror Refl.MirrorCmd Refl.MirrorFrame Refl.MirrorQuiet Refl.MirrorProofs Refl.MirrorCheck
     Refl.MirrorStale Refl.Concrete Refl.Examples.
Import ListNotations.
Local Open Scope N_scope.

(* payloads: v+1 (0 = empty Message); filter k accepts payload p iff k < p *)

Definition exm : list event :=
  [ EAttach 0 1 10; EAttach 1 1 11; EAttach 2 1 12;
    ECmd 0 (CSubscribe false [(Rel [a_star], None); (Rel [CLit 21], Some 4)]);       (* a*   and   ab with v > 3 *)
    ECmd 2 (CSubscribe false [(Abs [CAny; CLit 11; CAny], Some 6)]);                  (* /*/11/* with v > 5 *)
    ECmd 1 (CSetData 0 [([21], 6); ([22], 2); ([23; 21], 9)]);
    ECmd 1 (CSetData 0 [([21], 9); ([22], 8)]);
    ECmd 0 (CUnsubscribe [Rel [a_star]]);
    ECmd 1 (CBatch [CSetData 0 [([21], 3)]; CRemoveData false [([CLit 22], None)]]);
    ECmd 0 (CSubscribe false [(Rel [CLit 21], None); (Rel [CAny; CAny], None)]);
    EDetach 1 ].

Example exm_premises : premises_b all_fixed exm 0 = true /\ premises_b all_fixed exm 2 = true.
Proof. vm_compute. split; reflexivity. Qed.

(* after the sixth event client 0 holds ab and ac of session 1; at the end (session 1 gone) nothing *)
Example exm_nontrivial :
  option_map (fun c => length (c_mirror c)) (find (fun c => N.eqb (c_id c) 0) (w_clients (world_run all_fixed (firstn 6 exm) empty_world))) = Some 2%nat
  /\ option_map (fun c => length (c_mirror c)) (find (fun c => N.eqb (c_id c) 0) (w_clients (world_run all_fixed (firstn 10 exm) empty_world))) = Some 2%nat
  /\ option_map (fun c => length (c_mirror c)) (find (fun c => N.eqb (c_id c) 0) (w_clients (world_run all_fixed exm empty_world))) = Some 0%nat.
Proof. vm_compute. repeat split; reflexivity. Qed.

(* does client o hold, at the foreign path q, what the statement says? *)
Definition holds_at (w : world) (o : sid) (q : path) : bool :=
  match find (fun c => N.eqb (c_id c) o) (w_clients w), get_session (w_srv w) o with
  | Some c, Some ss =>
    own_node ss q ||
    match mirror_get (c_mirror c) q, expected (sv_tree (w_srv w)) ss q with
    | Some a, Some b => N.eqb a b
    | None, None => true
    | _, _ => false
    end
  | _, _ => true
  end.

(* F12: two patterns of equal clause count "conspire" in the initial-values traversal.
   j* = {jeremy 30, jenny 31, joe 34}, k* = {kate 32, kevin 33, kim 35} *)
Definition jstar : cclause := CWild [30; 31; 34].
Definition kstar : cclause := CWild [32; 33; 35].
Definition ex_f12 : list event :=
  [ EAttach 0 1 10; EAttach 1 1 11; EAttach 2 1 12;
    ECmd 1 (CSetData 0 [([30], 1); ([30; 31], 2); ([30; 32], 3)]);
    ECmd 2 (CSetData 0 [([33], 1); ([33; 34], 4); ([33; 35], 5)]);
    ECmd 0 (CSubscribe false [(Rel [jstar; kstar], None); (Rel [kstar; jstar], None)]) ].

Lemma mirror_refuted_without_F12_repair :
  premises_b (mkFixes false true true) ex_f12 0 = true
  /\ holds_at (world_run (mkFixes false true true) ex_f12 empty_world) 0 [1; 11; 30; 31] = false      (* jeremy/jenny is held *)
  /\ holds_at (world_run all_fixed ex_f12 empty_world) 0 [1; 11; 30; 31] = true.
Proof. vm_compute. repeat split; reflexivity. Qed.

(* F37: the filter of "ab" changes from v>3 to v>7 while "a*" still covers ab = 5 *)
Definition ex_f37 : list event :=
  [ EAttach 0 1 10; EAttach 1 1 11;
    ECmd 1 (CSetData 0 [([21], 6)]);
    ECmd 0 (CSubscribe false [(Rel [a_star], None)]);
    ECmd 0 (CSubscribe false [(Rel [CLit 21], Some 4)]);
    ECmd 0 (CSubscribe false [(Rel [CLit 21], Some 8)]) ].

Lemma mirror_refuted_without_F37_repair :
  premises_b (mkFixes true false true) ex_f37 0 = true
  /\ holds_at (world_run (mkFixes true false true) ex_f37 empty_world) 0 [1; 11; 21] = false          (* ab is missing *)
  /\ holds_at (world_run all_fixed ex_f37 empty_world) 0 [1; 11; 21] = true.
Proof. vm_compute. repeat split; reflexivity. Qed.

(* F38: one SETPARAMETERS changes the filter of "a*" (ab = 5 leaves it) and adds "ab": the initial values overtake the removal *)
Definition ex_f38 : list event :=
  [ EAttach 0 1 10; EAttach 1 1 11;
    ECmd 1 (CSetData 0 [([21], 6)]);
    ECmd 0 (CSubscribe false [(Rel [a_star], Some 4)]);
    ECmd 0 (CSubscribe false [(Rel [a_star], Some 8); (Rel [CLit 21], None)]) ].

Lemma mirror_refuted_without_F38_repair :
  premises_b (mkFixes true true false) ex_f38 0 = true
  /\ holds_at (world_run (mkFixes true true false) ex_f38 empty_world) 0 [1; 11; 21] = false          (* ab is missing *)
  /\ holds_at (world_run all_fixed ex_f38 empty_world) 0 [1; 11; 21] = true.
Proof. vm_compute. repeat split; reflexivity. Qed.

(* session 1 subscribes quietly; the observer 0 asks again for what it is subscribed to, alone and inside a BATCH after
   the SUBSCRIBE: that covers the key *)
Definition exg : list event :=
  [ EAttach 0 1 10; EAttach 1 1 11;
    ECmd 1 (CSetData 0 [([21], 6); ([22], 2)]);
    ECmd 0 (CSubscribe false [(Rel [a_star], None)]);
    ECmd 1 (CSubscribe true [(Rel [CLit 21], None)]);
    ECmd 0 (CGetData [(Rel [a_star], None)]);
    ECmd 0 (CBatch [CSubscribe false [(Rel [CLit 21], Some 4)]; CGetData [(Rel [CLit 21], Some 4)]; CSetData 0 [([23], 1)]]);
    ECmd 1 (CSetData 0 [([21], 9)]) ].

(* a condition on the session o has in a concrete state: look the session up, then evaluate *)
Lemma with_session : forall (sv : server) o (P : session -> Prop),
  match get_session sv o with Some ss => P ss | None => True end -> forall ss, get_session sv o = Some ss -> P ss.
Proof. intros sv o P H ss Hss. now rewrite Hss in H. Qed.

Lemma exg_premises :
  wf_wrun all_fixed empty_world exg /\ ok_wrun all_fixed 0 empty_world exg /\ small (run_budget exg).
Proof.
  split; [apply wf_wrun_b_spec; vm_compute; reflexivity|].
  split; [|unfold small; vm_compute; reflexivity].
  (* five events pass the state-free tests; the two with a GETDATA need the observer's subscriptions at that moment *)
  apply (ok_wrun_app_b all_fixed 0 (firstn 5 exg) (skipn 5 exg)); [reflexivity|reflexivity|].
  cbn [skipn exg ok_wrun].
  split; [now apply ev_ok_b_one|split; [|split; [now apply ev_ok_b_one|split; [|split; [now apply ev_ok_b_one|split; [now apply ev_clean_b_one|exact I]]]]]].
  - (* GETDATA a* *)
    intros _. split; [exact I|left]. split; [reflexivity|].
    apply (with_session _ _ (fun ss => cmd_covered (s_subs ss) _)). vm_compute.
    split; [repeat constructor; intros []|split; [intros p [<-|[]]; discriminate|intros kf [<-|[]]; vm_compute; auto]].
  - (* BATCH [SUBSCRIBE ab@4; GETDATA ab@4; SETDATA] *)
    intros _. split; [|left; split; [reflexivity|]].
    + cbn. split; [|repeat split]. split; [repeat constructor; intros []|]. intros p [<-|[]]. discriminate.
    + apply (with_session _ _ (fun ss => cmd_covered (s_subs ss) _)). vm_compute.
      split; [exact I|split; [|split; exact I]].
      split; [repeat constructor; intros []|split; [intros p [<-|[]]; discriminate|intros kf [<-|[]]; vm_compute; auto]].
Qed.

(* the observer holds ab and ac of session 1 with their current payloads at the end *)
Example exg_nontrivial :
  holds_at (world_run all_fixed exg empty_world) 0 [1; 11; 21] = true
  /\ option_map (fun c => length (c_mirror c)) (find (fun c => N.eqb (c_id c) 0) (w_clients (world_run all_fixed exg empty_world))) = Some 2%nat.
Proof. vm_compute. split; reflexivity. Qed.

(* the observer 0 subscribes to /*/11/* only; session 2 (named 12) sets and removes quietly in its own subtree *)
Definition exq : list event :=
  [ EAttach 0 1 10; EAttach 1 1 11; EAttach 2 1 12;
    ECmd 0 (CSubscribe false [(Abs [CAny; CLit 11; CAny], None)]);
    ECmd 1 (CSetData 0 [([21], 6)]);
    ECmd 2 (CSetData (N.shiftl 1 c_SETDATANODE_FLAG_QUIET) [([21], 7); ([22; 23], 8)]);
    ECmd 2 (CBatch [CRemoveData true [([CLit 22], None)]; CSetData 0 [([24], 1)]]);
    ECmd 1 (CSetData 0 [([21], 9)]) ].

Lemma exq_hidden : hidden_data [mkEntry [CAny; CLit 11; CAny] None] [1; 12].
Proof.
  intros e [He|[]] q Hq. subst e. apply is_prefix_spec in Hq as [r Hr]. subst q. cbn [e_pat].
  destruct r as [|x [|y r]]; reflexivity.
Qed.

Lemma exq_premises :
  wf_wrun all_fixed empty_world exq /\ ok_wrun all_fixed 0 empty_world exq /\ small (run_budget exq).
Proof.
  split; [apply wf_wrun_b_spec; vm_compute; reflexivity|].
  split; [|unfold small; vm_compute; reflexivity].
  (* session 2 may be quiet in a state where the observer holds /*/11/* only and session 2 sits at /1/12 *)
  assert (Hq : forall w c, match get_session (w_srv w) 0, get_session (w_srv w) 2 with
                           | Some so, Some sb => all_entries (s_subs so) = [mkEntry [CAny; CLit 11; CAny] None] /\ session_dir sb = [1; 12]
                           | _, _ => True
                           end -> (cmd_depth c <= max_batch_nest)%nat -> ev_ok 0 w (ECmd 2 c)).
  { intros w c H Hd. split; [right|exact Hd]. split; [discriminate|]. intros so sb H1 H2. rewrite H1, H2 in H.
    destruct H as [E1 E2]. rewrite E1, E2. exact exq_hidden. }
  apply (ok_wrun_app_b all_fixed 0 (firstn 5 exq) (skipn 5 exq)); [reflexivity|reflexivity|].
  cbn [skipn exq ok_wrun].
  split; [apply Hq; [vm_compute; split; reflexivity|vm_compute; lia]|split; [now apply ev_clean_b_one|]].
  split; [apply Hq; [vm_compute; split; reflexivity|vm_compute; lia]|split; [now apply ev_clean_b_one|]].
  split; [now apply ev_ok_b_one|split; [now apply ev_clean_b_one|exact I]].
Qed.

(* the observer holds ab of session 1 with its current payload and nothing of session 2 *)
Example exq_nontrivial :
  holds_at (world_run all_fixed exq empty_world) 0 [1; 11; 21] = true
  /\ holds_at (world_run all_fixed exq empty_world) 0 [1; 12; 21] = true
  /\ option_map (fun c => length (c_mirror c)) (find (fun c => N.eqb (c_id c) 0) (w_clients (world_run all_fixed exq empty_world))) = Some 1%nat
  /\ length (sv_tree (w_srv (world_run all_fixed exq empty_world))) = 7%nat.
Proof. vm_compute. repeat split; reflexivity. Qed.

(* the observer 0 replaces "a*" by "ab with v > 3" atomically: SUBSCRIBE: the new one, then unsubscribe the old one, in one
   BATCH (the client prunes once, after the BATCH); ac drops out of its mirror, ab stays and follows later changes *)
Definition exb : list event :=
  [ EAttach 0 1 10; EAttach 1 1 11;
    ECmd 1 (CSetData 0 [([21], 6); ([22], 2)]);
    ECmd 0 (CSubscribe false [(Rel [a_star], None)]);
    ECmd 0 (CBatch [CSubscribe false [(Rel [CLit 21], Some 4)]; CSetData 0 [([30], 1)]; CUnsubscribe [Rel [a_star]]; CSetData 0 [([31], 1)]]);
    ECmd 1 (CSetData 0 [([21], 9); ([22], 8)]) ].

Example exb_premises : premises_b all_fixed exb 0 = true.
Proof. vm_compute. reflexivity. Qed.

Example exb_nontrivial :
  holds_at (world_run all_fixed exb empty_world) 0 [1; 11; 21] = true
  /\ holds_at (world_run all_fixed exb empty_world) 0 [1; 11; 22] = true
  /\ option_map (fun c => length (c_mirror c)) (find (fun c => N.eqb (c_id c) 0) (w_clients (world_run all_fixed (firstn 4 exb) empty_world))) = Some 2%nat
  /\ option_map (fun c => length (c_mirror c)) (find (fun c => N.eqb (c_id c) 0) (w_clients (world_run all_fixed exb empty_world))) = Some 1%nat.
Proof. vm_compute. repeat split; reflexivity. Qed.

(* the other order: unsubscribe the old one first, then SUBSCRIBE: the new one, then drop one more, all in one BATCH *)
Definition exu : list event :=
  [ EAttach 0 1 10; EAttach 1 1 11;
    ECmd 1 (CSetData 0 [([21], 6); ([22], 2); ([23], 7)]);
    ECmd 0 (CSubscribe false [(Rel [a_star], None); (Rel [CLit 23], None)]);
    ECmd 0 (CBatch [CUnsubscribe [Rel [a_star]]; CSetMax 3; CSubscribe false [(Rel [CLit 21], Some 4)]; CSetData 0 [([30], 1)];
                    CUnsubscribe [Rel [CLit 23]]]);
    ECmd 1 (CSetData 0 [([21], 9); ([22], 8); ([23], 1)]) ].

Example exu_premises : premises_b all_fixed exu 0 = true.
Proof. vm_compute. reflexivity. Qed.

Example exu_nontrivial :
  holds_at (world_run all_fixed exu empty_world) 0 [1; 11; 21] = true
  /\ holds_at (world_run all_fixed exu empty_world) 0 [1; 11; 22] = true
  /\ holds_at (world_run all_fixed exu empty_world) 0 [1; 11; 23] = true
  /\ option_map (fun c => length (c_mirror c)) (find (fun c => N.eqb (c_id c) 0) (w_clients (world_run all_fixed (firstn 4 exu) empty_world))) = Some 3%nat
  /\ option_map (fun c => length (c_mirror c)) (find (fun c => N.eqb (c_id c) 0) (w_clients (world_run all_fixed exu empty_world))) = Some 1%nat.
Proof. vm_compute. repeat split; reflexivity. Qed.

(* the observer 0 watches a*; session 1 changes ab and creates ac QUIETLY, then sets ad loudly: the mirror keeps the old ab,
   knows nothing of ac, and is exact at ad -- ab and ac are the collected (stale) paths *)
Definition exs : list event :=
  [ EAttach 0 1 10; EAttach 1 1 11;
    ECmd 1 (CSetData 0 [([21], 6)]);
    ECmd 0 (CSubscribe false [(Rel [a_star], None)]);
    ECmd 1 (CSetData (N.shiftl 1 c_SETDATANODE_FLAG_QUIET) [([21], 7); ([22], 2)]);
    ECmd 1 (CSetData 0 [([20], 1)]) ].

Example exs_premises :
  wf_wrun_b all_fixed empty_world exs = true /\ forallb (ev_oks_b 0) exs = true
  /\ stale_run all_fixed 0 empty_world exs [] = [[1; 11; 21]; [1; 11; 21]; [1; 11; 22]].
Proof. vm_compute. repeat split; reflexivity. Qed.

Example exs_nontrivial :
  holds_at (world_run all_fixed exs empty_world) 0 [1; 11; 20] = true            (* exact where nothing happened quietly *)
  /\ holds_at (world_run all_fixed exs empty_world) 0 [1; 11; 21] = false        (* stale at ab: the restriction is needed *)
  /\ holds_at (world_run all_fixed exs empty_world) 0 [1; 11; 22] = false
  /\ option_map (fun c => length (c_mirror c)) (find (fun c => N.eqb (c_id c) 0) (w_clients (world_run all_fixed exs empty_world))) = Some 2%nat.
Proof. vm_compute. repeat split; reflexivity. Qed.
