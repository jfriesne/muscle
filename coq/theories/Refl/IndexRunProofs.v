(* Refl/IndexRunProofs.v -- C13: GETDATA / subscriptions, clone / restore, commands, steps and runs keep the
   invariants of Refl/IndexModelProofs.v; the statements of C13. *)
From Coq Require Import List Arith Bool.
Import ListNotations.
From Muscle Require Import Refl.Index Refl.IndexProofs Refl.IndexModel Refl.IndexModelProofs.

Lemma Inv_mirror : forall st s p, Inv st -> subscribed st s p = true -> st_mirror st s p = index_at (st_tree st) p.
Proof. intros st s p (M & _ & Hp) Hs. pose proof (mA_sub st M s p Hs) as H. rewrite Hp in H. exact H. Qed.

Definition gd_ops (ip rf : bool) (s : nat) (e : path * inode) : list iop :=
  if own s (fst e) && negb ip && negb rf then [] else snapshot (snd e).

Definition gd_events (ip rf : bool) (s : nat) (L : list (path * inode)) : list event :=
  flat_map (fun e => map (fun o => (s, fst e, o)) (gd_ops ip rf s e)) L.

Lemma getdata_node_as_fold : forall st s e,
  getdata_node st s e = fold_left deliver1 (map (fun o => (s, fst e, o)) (gd_ops (st_ipres st s) (st_refl st s) s e)) st.
Proof.
  intros st s [p n]. unfold getdata_node, gd_ops. simpl fst. simpl snd.
  destruct (own s p && negb (st_ipres st s) && negb (st_refl st s)); reflexivity.
Qed.

Lemma getdata_as_fold : forall L st s,
  fold_left (fun st e => getdata_node st s e) L st = fold_left deliver1 (gd_events (st_ipres st s) (st_refl st s) s L) st.
Proof.
  induction L as [|e L IH]; intros st s; [reflexivity|].
  cbn [fold_left]. unfold gd_events. cbn [flat_map]. rewrite fold_left_app.
  rewrite IH. rewrite getdata_node_as_fold.
  destruct (fold_deliver_fields (map (fun o => (s, fst e, o)) (gd_ops (st_ipres st s) (st_refl st s) s e)) st) as (_ & _ & _ & D & E & _).
  rewrite D, E. reflexivity.
Qed.

(* the keys of a tree are distinct: a GETDATA sends at most one snapshot per node, and only to its sender *)
Lemma pend_for_gd : forall ip rf s pat t s' q, NoDup (map fst t) ->
  pend_for (gd_events ip rf s (filter (fun e => pmatch pat (fst e)) t)) s' q
  = match lookup t q with
    | Some n => if Nat.eqb s s' && pmatch pat q then gd_ops ip rf s (q, n) else []
    | None => []
    end.
Proof.
  intros ip rf s pat t s' q. unfold gd_events. induction t as [|[r m] t IH]; intro Hn; [reflexivity|].
  simpl in Hn. apply NoDup_cons_iff in Hn. destruct Hn as [Hr Hn']. specialize (IH Hn'). simpl.
  destruct (path_eqP r q) as [->|Hne].
  - destruct (lookup t q) as [n|] eqn:El; [contradiction Hr; exact (in_map fst _ _ (lookup_In _ _ _ El))|].
    destruct (pmatch pat q); [|rewrite andb_false_r; exact IH].
    cbn [flat_map fst]. rewrite pend_for_app, pend_for_map, path_eqb_refl, IH, !andb_true_r. apply app_nil_r.
  - destruct (pmatch pat r); [|exact IH].
    cbn [flat_map fst]. rewrite pend_for_app, pend_for_map, (path_eqb_neq r q Hne), andb_false_r. exact IH.
Qed.

Lemma getdata_Inv_gen : forall st s pat, Quiet st ->
  (forall s' p, subscribed st s' p = true ->
     st_mirror st s' p = index_at (st_tree st) p \/ (s' = s /\ pmatch pat p = true /\ st_mirror st s' p = [])) ->
  Inv (getdata st s pat).
Proof.
  intros st s pat Q Hsub. unfold getdata. rewrite getdata_as_fold. apply deliver_Inv; [exact Q|].
  destruct Q as [_ W H6 _ _ _].
  intros s' p Hs. rewrite (pend_for_gd _ _ _ _ _ _ _ (proj1 W)). pose proof (Hsub s' p Hs) as Hm.
  unfold index_at in *. destruct (lookup (st_tree st) p) as [n|] eqn:El.
  2:{ destruct Hm as [->|(_ & _ & ->)]; apply logs_nil. }
  destruct (Nat.eqb_spec s s') as [<-|Hne]; [destruct (pmatch pat p) eqn:Epm|]; simpl.
  - (* the pattern reaches p: a snapshot goes out, unless the node is the session's own and cannot hold an index *)
    unfold gd_ops. simpl fst. simpl snd.
    destruct (own s p && negb (st_ipres st s) && negb (st_refl st s)) eqn:Esk.
    + destruct Hm as [->|(_ & _ & ->)]; [apply logs_nil|].
      apply andb_prop in Esk. destruct Esk as [Esk _]. apply andb_prop in Esk. destruct Esk as [Eo Ei].
      destruct (H6 s) as [Hi|Hi]; [rewrite Hi in Ei; discriminate|].
      specialize (Hi p Eo). unfold index_at in Hi. rewrite El in Hi. rewrite Hi. apply logs_nil.
    + destruct Hm as [->|(_ & _ & ->)]; [apply snapshot_logs_same | apply snapshot_logs; left; reflexivity].
  - destruct Hm as [->|(_ & E & _)]; [apply logs_nil | discriminate].
  - destruct Hm as [->|(E & _)]; [apply logs_nil | congruence].
Qed.

Lemma getdata_Inv : forall st s pat, Inv st -> Inv (getdata st s pat).
Proof.
  intros st s pat HI. apply getdata_Inv_gen; [apply Inv_Quiet, HI | intros s' p Hs; left; apply (Inv_mirror st s' p HI Hs)].
Qed.

Lemma clause_eqb_eq : forall a b, clause_eqb a b = true -> a = b.
Proof.
  intros [|x] [|y] H; simpl in H; try discriminate; [reflexivity|]. apply name_eqb_eq in H. subst. reflexivity.
Qed.

Lemma pattern_eqb_eq : forall a b, pattern_eqb a b = true -> a = b.
Proof.
  induction a as [|x a IH]; intros [|y b] H; simpl in H; try discriminate; [reflexivity|].
  apply andb_true_iff in H. destruct H as [H1 H2]. apply clause_eqb_eq in H1. apply IH in H2. subst. reflexivity.
Qed.

Lemma subscribed_in_add : forall l pat p, subscribed_in (add_sub l pat) p = subscribed_in l p || pmatch pat p.
Proof.
  intros l pat p. unfold add_sub. destruct (existsb (pattern_eqb pat) l) eqn:E.
  - apply existsb_exists in E. destruct E as [x [Hx Ex]]. apply pattern_eqb_eq in Ex. subst x.
    destruct (pmatch pat p) eqn:Em; [|rewrite orb_false_r; reflexivity].
    rewrite orb_true_r. unfold subscribed_in. apply existsb_exists. exists pat. split; assumption.
  - unfold subscribed_in. rewrite existsb_app. simpl. rewrite orb_false_r. reflexivity.
Qed.

Lemma subscribe_Inv : forall st s pat, Inv st -> s < st_n st -> Inv (subscribe st s pat).
Proof.
  intros st s pat HI Hlt. destruct (Inv_Quiet st HI) as [Hp W H6 U Hh N]. unfold subscribe.
  set (st0 := set_subs st s (add_sub (st_subs st s) pat)).
  assert (Hsub0 : forall s' p, subscribed st0 s' p = if Nat.eqb s' s then subscribed st s p || pmatch pat p else subscribed st s' p).
  { intros s' p. unfold subscribed, st0. simpl. destruct (Nat.eqb_spec s' s) as [->|]; [apply subscribed_in_add | reflexivity]. }
  assert (Hidle : forall s' p, subscribed st0 s' p = false -> subscribed st s' p = false).
  { intros s' p Hs. rewrite Hsub0 in Hs. destruct (Nat.eqb_spec s' s) as [->|]; [apply orb_false_iff in Hs; apply Hs | exact Hs]. }
  apply getdata_Inv_gen; [constructor; try assumption|].
  - intros s' p Hs. apply U, Hidle, Hs.
  - intros s' Hs'. simpl in *. destruct (Nat.eqb_spec s' s) as [->|]; [|apply (N s' Hs')].
    destruct (Nat.lt_irrefl _ (Nat.lt_le_trans _ _ _ Hlt Hs')).
  - intros s' p Hs. rewrite Hsub0 in Hs. simpl.
    destruct (subscribed st s' p) eqn:Eo; [left; apply (Inv_mirror st s' p HI Eo) | right].
    destruct (Nat.eqb_spec s' s) as [->|]; [|congruence].
    rewrite Eo in Hs. split; [reflexivity|]. split; [exact Hs | apply (U s p Eo)].
Qed.

Lemma unsubscribe_by_Inv : forall st s keep_sub, Inv st -> Inv (unsubscribe_by st s keep_sub).
Proof.
  intros st s keep_sub HI. destruct (Inv_Quiet st HI) as [Hp W H6 U Hh N]. unfold unsubscribe_by.
  set (l := filter keep_sub (st_subs st s)).
  assert (Hl : forall p, subscribed_in l p = true -> subscribed st s p = true).
  { intros p H. unfold subscribed_in in H. apply existsb_exists in H. destruct H as [x [Hx Hm]].
    apply filter_In in Hx. unfold subscribed, subscribed_in. apply existsb_exists. exists x. split; [apply Hx | exact Hm]. }
  apply Inv_intro; [constructor; try assumption|]; simpl.
  - intros s' p Hs. unfold subscribed in Hs. simpl in Hs. destruct (Nat.eqb_spec s' s) as [->|]; simpl.
    + fold (subscribed_in l p) in Hs. rewrite Hs. split; reflexivity.
    + apply U, Hs.
  - intros s' p. destruct (negb (Nat.eqb s' s) || subscribed_in l p); [apply Hh | apply logs_nil].
  - intros s' Hs'. destruct (Nat.eqb_spec s' s) as [->|]; [|apply (N s' Hs')].
    unfold l. rewrite (N s Hs'). reflexivity.
  - intros s' p Hs. unfold subscribed in Hs. simpl in Hs.
    destruct (Nat.eqb_spec s' s) as [->|]; simpl.
    + fold (subscribed_in l p) in Hs. rewrite Hs. apply (Inv_mirror st s p HI (Hl p Hs)).
    + apply (Inv_mirror st s' p HI Hs).
Qed.

(* The copy loop: the entries placed so far (there are w of them) are distinct names in the destination's index,
   none of them still to be copied; so dropping the next name leaves them alone, and position w exists. *)
Lemma copy_index_spec : forall cfg s dst l st placed, fix_clone cfg = true -> own s dst = true ->
  MidA st -> I6x s st -> has_node (st_tree st) dst = true ->
  NoDup (placed ++ l) -> incl placed (index_at (st_tree st) dst) ->
  MidA (copy_index cfg st dst l (length placed)) /\ I6x s (copy_index cfg st dst l (length placed)).
Proof.
  intros cfg s dst l. induction l as [|nm rest IH]; intros st placed Hfix Ho M Hx Hd Hnd Hpl; [split; assumption|].
  cbn [copy_index]. rewrite Hfix. destruct (NoDup_remove _ _ _ Hnd) as [Hnd' Hnm].
  destruct (mem nm (kids_of (st_tree st) dst)) eqn:Em; [|apply IH; assumption].
  destruct (prim_remove_entry_spec st dst nm M) as (M0 & _ & K0 & _ & S0).
  set (st0 := prim_remove_entry st dst nm) in *.
  assert (Hd0 : has_node (st_tree st0) dst = true) by (rewrite (has_node_keys _ _ dst K0); exact Hd).
  destruct (node_at_wf st0 dst M0 Hd0) as [Hl0 Wn0].
  rewrite <- (kids_of_keys _ _ dst K0) in Em.
  destruct (insert_index_entry_at (kids_of (st_tree st0) dst) (node_at st0 dst) (length placed) nm) as [n' ops] eqn:Ei.
  assert (Hpl0 : incl placed (index_of (node_at st0 dst))).
  { intros x Hin. rewrite <- (index_at_lookup _ _ _ Hl0). apply S0. split; [apply Hpl, Hin|].
    intros ->. apply Hnm, in_or_app. left. exact Hin. }
  assert (Hnot : ~ In nm (index_of (node_at st0 dst))).
  { rewrite <- (index_at_lookup _ _ _ Hl0). intro Hin. apply S0 in Hin. destruct Hin as [_ Hne]. exact (Hne eq_refl). }
  destruct (insert_index_entry_at_spec _ _ _ _ _ _ Wn0 Em Hnot
              (NoDup_incl_length (NoDup_app_l _ _ _ Hnd') Hpl0) Ei) as (W & L & E).
  assert (Hidx : forall q, index_at (st_tree (put_idx st0 dst n' ops)) q
                           = if path_eqb dst q then index_of n' else index_at (st_tree st0) q).
  { intro q. apply (index_at_set_node _ _ _ _ _ Hl0). }
  apply (IH (put_idx st0 dst n' ops) (nm :: placed)); try assumption.
  - eapply put_idx_MidA; eassumption.
  - intros s' Hne. apply (J_other st0 _ s s' dst); [reflexivity | exact Ho | exact Hne | |].
    + intros q Hq. rewrite Hidx, path_eqb_neq by congruence. reflexivity.
    + apply (J_shrink st); [apply (prim_remove_entry_shrinks dst st nm M) | apply Hx, Hne].
  - simpl. rewrite has_node_set_node. exact Hd0.
  - simpl. constructor; assumption.
  - intros x Hin. rewrite Hidx, path_eqb_refl, E. apply insert_at_In.
    destruct Hin as [<-|Hin]; [left; reflexivity | right; apply Hpl0, Hin].
Qed.

(* the copy step of CloneDataNodeSubtree, as it stands in [clone] *)
Lemma copy_Mid : forall cfg st s src dstrel l, fix_clone cfg = true -> Mid st -> idx (node_at st src) = Some l ->
  has_node (st_tree st) (NS s :: dstrel) = true ->
  Mid (if fix_clone cfg then set_ipres (copy_index cfg st (NS s :: dstrel) l 0) s
       else copy_index cfg st (NS s :: dstrel) l 0).
Proof.
  intros cfg st s src dstrel l Hfix [M H6] El Ed. rewrite Hfix.
  assert (Hnd : NoDup l).
  { unfold node_at in El. destruct (lookup (st_tree st) src) as [m|] eqn:Els; [|discriminate].
    rewrite <- (idx_Some _ _ El). apply (proj2 (mA_twf st M) src m Els). }
  destruct (copy_index_spec cfg s (NS s :: dstrel) l st [] Hfix (own_root s) M (I6_I6x _ _ H6) Ed Hnd) as [M3 X3].
  { intros x []. }
  split; [apply MidA_set_ipres; exact M3 | apply I6_set_ipres; exact X3].
Qed.

Lemma drop_session_Inv : forall st s, Inv st -> Inv (drop_session st s).
Proof.
  intros st s HI. destruct (Inv_Quiet st HI) as [Hp W H6 U Hh N].
  assert (Hsub : forall s' p, subscribed (drop_session st s) s' p = if Nat.eqb s' s then false else subscribed st s' p).
  { intros s' p. unfold subscribed. simpl. destruct (Nat.eqb s' s); reflexivity. }
  apply Inv_intro; [constructor; try assumption|]; simpl.
  - intros s' p Hs. rewrite Hsub in Hs. destruct (Nat.eqb s' s); [split; reflexivity | apply U, Hs].
  - intros s' p. destruct (Nat.eqb s' s); [apply logs_nil | apply Hh].
  - intros s' Hs'. destruct (Nat.eqb s' s); [reflexivity | apply (N s' Hs')].
  - intros s' p Hs. rewrite Hsub in Hs.
    destruct (Nat.eqb s' s); [discriminate | apply (Inv_mirror st s' p HI Hs)].
Qed.

Definition cfg_ok (cfg : config) : Prop := fix_reorder_ipres cfg = true /\ fix_clone cfg = true.

Lemma Inv_Mid : forall st, Inv st -> Mid st.
Proof. intros st (M & H & _). split; assumption. Qed.

(* commands that only change the tree (and queue notifications) *)
Definition mutating (c : cmd) : bool :=
  match c with
  | CSubscribe _ | CUnsubscribe _ | CUnsubscribeAll | CGetData _ | CAttach => false
  | _ => true
  end.

(* Such a command is a composition of the primitives below: whatever they all keep, its handler keeps.
   Used with the invariant here, and with "no client field changes" in IndexLogProofs. *)
Section Composite.
  Variables (cfg : config) (P : state -> Prop).
  Hypothesis P_add_node : forall st q, P st -> P (with_tree st (add_node (st_tree st) q)).
  Hypothesis P_remove_entry : forall st p k, P st -> P (prim_remove_entry st p k).
  Hypothesis P_insert_ordered : forall st s p b o, P st -> P (prim_insert_ordered st s p b o).
  Hypothesis P_reorder : forall st s p c b, P st -> P (prim_reorder cfg st s p c b).
  Hypothesis P_remove_child : forall st v, P st -> P (remove_child_rec st v).
  Hypothesis P_remove_entry_at : forall st p pos, P st -> P (prim_remove_entry_at st p pos).
  Hypothesis P_insert_entry_at : forall st s p pos k, P st -> P (prim_insert_entry_at st s p pos k).
  Hypothesis P_set_refl : forall st s v, P st -> P (set_refl st s v).
  Hypothesis P_copy : forall st s src dstrel l, P st -> idx (node_at st src) = Some l ->
    has_node (st_tree st) (NS s :: dstrel) = true ->
    P (if fix_clone cfg then set_ipres (copy_index cfg st (NS s :: dstrel) l 0) s
       else copy_index cfg st (NS s :: dstrel) l 0).

  Lemma set_data_node_aux_keeps : forall rel st s cur addidx b, P st -> P (set_data_node_aux st s cur rel addidx b).
  Proof.
    induction rel as [|c rest IH]; intros st s cur addidx b H; [exact H|].
    destruct rest as [|c2 rest].
    - cbn [set_data_node_aux].
      destruct (has_node (st_tree st) (cur ++ [c])).
      + destruct addidx; [exact H|]. destruct (is_remove b); [apply P_remove_entry|]; exact H.
      + destruct addidx; [apply P_insert_ordered | apply P_add_node]; exact H.
    - change (set_data_node_aux st s cur (c :: c2 :: rest) addidx b)
        with (set_data_node_aux (with_tree st (add_node (st_tree st) (cur ++ [c]))) s (cur ++ [c]) (c2 :: rest) addidx b).
      apply IH, P_add_node, H.
  Qed.

  Lemma set_data_node_keeps : forall st s rel addidx b, P st -> P (set_data_node st s rel addidx b).
  Proof.
    intros st s rel addidx b H. unfold set_data_node.
    destruct (has_node (st_tree st) [NS s]); [apply set_data_node_aux_keeps|]; exact H.
  Qed.

  Lemma set_data_gen_keeps : forall st s rel, P st -> P (set_data_gen st s rel).
  Proof.
    intros st s rel H. unfold set_data_gen. destruct (has_node (st_tree st) [NS s]); [|exact H].
    apply P_insert_ordered. generalize [NS s] as cur. revert st H.
    induction rel as [|c r IH]; intros st H cur; [exact H | apply IH, P_add_node, H].
  Qed.

  Lemma clone_keeps : forall fuel st s src dstrel addidx b, P st -> P (clone cfg fuel st s src dstrel addidx b).
  Proof.
    induction fuel as [|f IH]; intros st s src dstrel addidx b H; [exact H|].
    cbn [clone]. destruct (has_node (st_tree st) src); [|exact H].
    set (st1 := set_data_node st s dstrel addidx b).
    assert (Hfold : P (fold_left (fun st k => clone cfg f st s (src ++ [k]) (dstrel ++ [k]) false BEnd)
                                 (kids_of (st_tree st1) src) st1)).
    { apply fold_left_inv; [intros st' k H'; apply IH, H' | apply set_data_node_keeps, H]. }
    set (st2 := fold_left _ (kids_of (st_tree st1) src) st1) in *.
    destruct (idx (node_at st2 src)) as [l|] eqn:El; [|exact Hfold].
    destruct (has_node (st_tree st2) (NS s :: dstrel)) eqn:Ed; [|exact Hfold].
    apply (P_copy st2 s src dstrel l Hfold El Ed).
  Qed.

  Lemma restore_keeps : forall fuel t0 st s src dstrel addidx, P st -> P (restore fuel t0 st s src dstrel addidx).
  Proof.
    induction fuel as [|f IH]; intros t0 st s src dstrel addidx H; [exact H|].
    cbn [restore].
    apply fold_left_inv; [intros st' k H'; destruct (mem k _); [exact H' | apply IH, H']|].
    apply fold_left_inv; [intros st' k H'; destruct (mem k _); [apply IH, H' | exact H']|].
    apply set_data_node_keeps, H.
  Qed.

  Lemma handle_keeps : forall st s c, mutating c = true -> P st -> P (handle cfg st s c).
  Proof.
    intros st s c Hm H. destruct c; try discriminate Hm; cbn [handle].
    - (* CSetData *) apply fold_left_inv; [|exact H]. intros st' [rel gen] H'. simpl.
      destruct gen; [destruct addidx; [apply set_data_gen_keeps|]; exact H' | apply set_data_node_keeps, H'].
    - (* CInsertOrdered *) repeat (apply fold_left_inv; [|assumption]; intros). apply P_insert_ordered; assumption.
    - (* CReorder *) repeat (apply fold_left_inv; [|assumption]; intros). apply P_reorder; assumption.
    - (* CRemove *) apply fold_left_inv; [|exact H]. intros st' v H'. unfold prim_remove_node.
      destruct (2 <=? length v); [apply P_remove_child|]; exact H'.
    - (* CSetRefl *) apply P_set_refl, H.
    - (* CNoop *) exact H.
    - (* ASetDataNode *) apply set_data_node_keeps, H.
    - (* AClone *) apply clone_keeps, H.
    - (* ARestore *) destruct (has_node (st_tree st) src); [apply restore_keeps|]; exact H.
    - (* ARemoveEntryAt *) apply P_remove_entry_at, H.
    - (* AInsertEntryAt *) apply P_insert_entry_at, H.
    - (* CDetach *) apply P_remove_child, H.
  Qed.
End Composite.

Lemma handle_Mid : forall cfg st s c, cfg_ok cfg -> Inv st -> s < st_n st -> Mid (handle cfg st s c).
Proof.
  intros cfg st s c [Hf1 Hf2] HI Hlt. destruct (mutating c) eqn:Em.
  - apply (handle_keeps cfg Mid add_node_Mid prim_remove_entry_Mid prim_insert_ordered_Mid
             (fun st s p c b => prim_reorder_Mid cfg st s p c b Hf1) remove_child_rec_Mid prim_remove_entry_at_Mid
             prim_insert_entry_at_Mid set_refl_Mid (fun st s src dstrel l => copy_Mid cfg st s src dstrel l Hf2));
      [exact Em | apply Inv_Mid, HI].
  - apply Inv_Mid. destruct c; try discriminate Em; cbn [handle].
    + (* CSubscribe *) apply subscribe_Inv; assumption.
    + (* CUnsubscribe *) apply unsubscribe_by_Inv, HI.
    + (* CUnsubscribeAll *) apply unsubscribe_by_Inv, HI.
    + (* CGetData *) apply getdata_Inv, HI.
    + (* CAttach *) exact HI.
Qed.

Lemma flush_n : forall st, st_n (flush st) = st_n st.
Proof. intro st. unfold flush. destruct (fold_deliver_fields (st_pend st) (with_pend st [])) as (A & _). exact A. Qed.

Lemma attach_Inv : forall st, Inv st -> Inv (attach st).
Proof.
  intros st HI. destruct (Inv_Quiet st HI) as [Hp W H6 U Hh N].
  apply Inv_intro; [constructor; try assumption|]; simpl.
  - apply twf_add_node, W.
  - apply (I6_shrink st _ H6). split; [reflexivity|]. intros q x. simpl. rewrite index_at_add_node. auto.
  - intros s Hs. apply N, Nat.lt_le_incl, Hs.
  - intros s p Hs. rewrite index_at_add_node. apply (Inv_mirror st s p HI Hs).
Qed.

Definition guarded (cfg : config) (s : nat) (st : state) (c : cmd) : state :=
  if (s <? st_n st) && has_node (st_tree st) [NS s]
  then match c with CDetach => drop_session (flush (handle cfg st s c)) s | _ => flush (handle cfg st s c) end
  else st.

Lemma exec_eq : forall cfg s st c,
  exec cfg s st c = match c with CAttach => attach st | _ => guarded cfg s st c end.
Proof. intros cfg s st c. destruct c; reflexivity. Qed.

Lemma exec_Inv : forall cfg s st c, cfg_ok cfg -> Inv st -> Inv (exec cfg s st c).
Proof.
  intros cfg s st c Hc HI.
  assert (G : Inv (guarded cfg s st c)).
  { unfold guarded. destruct ((s <? st_n st) && has_node (st_tree st) [NS s]) eqn:E; [|exact HI].
    apply andb_true_iff in E. destruct E as [E _]. apply Nat.ltb_lt in E.
    destruct (handle_Mid cfg st s c Hc HI E) as [M H6]. pose proof (flush_Inv _ M H6) as HF.
    destruct c; try exact HF. apply drop_session_Inv. exact HF. }
  rewrite exec_eq. destruct c; try exact G. apply attach_Inv. exact HI.
Qed.

Lemma Inv_with_out : forall st o, Inv st -> Inv (with_out st o).
Proof. intros st o (M & H6 & Hp). split; [|split; [exact H6 | exact Hp]]. destruct M. constructor; assumption. Qed.

Lemma step_Inv : forall cfg st sc, cfg_ok cfg -> Inv st -> Inv (step cfg st sc).
Proof.
  intros cfg st sc Hc HI. unfold step.
  apply fold_left_inv; [intros; apply exec_Inv; assumption | apply Inv_with_out, HI].
Qed.

Lemma init_Inv : forall n, Inv (init_state n).
Proof.
  intro n.
  assert (Hnew : forall p m, lookup (init_tree n) p = Some m -> m = new_node).
  { intros p m H. apply lookup_In, in_map_iff in H. destruct H as [s [E _]]. congruence. }
  apply Inv_intro; [constructor; simpl; try reflexivity; try (split; reflexivity) | discriminate].
  - split.
    + unfold init_tree. rewrite map_map. simpl. apply FinFun.Injective_map_NoDup; [|apply seq_NoDup].
      intros x y H. inversion H. reflexivity.
    + intros p m H. rewrite (Hnew _ _ H). apply wfn_new.
  - intro s. right. intros p _. simpl. unfold index_at.
    destruct (lookup (init_tree n) p) as [m|] eqn:E; [rewrite (Hnew _ _ E)|]; reflexivity.
Qed.

Theorem run_Inv : forall cfg n steps, cfg_ok cfg -> Inv (run cfg n steps).
Proof.
  intros cfg n steps Hc. unfold run. apply fold_left_inv; [intros; apply step_Inv; assumption | apply init_Inv].
Qed.

Lemma cfg_fixed_ok : cfg_ok cfg_fixed.
Proof. split; reflexivity. Qed.

(* index_inv: after every history, every index lists only existing children of its node, each at most once *)
Theorem index_inv : forall n steps p,
  let t := st_tree (run cfg_fixed n steps) in
  NoDup (index_at t p) /\ forall k, In k (index_at t p) -> has_node t (p ++ [k]) = true.
Proof.
  intros n steps p t. destruct (run_Inv cfg_fixed n steps cfg_fixed_ok) as (M & _). apply twf_index, (mA_twf _ M).
Qed.

(* replay_eq: at every quiescent point the replica of every subscriber equals the server's index, and it is
   what replaying (from nothing) everything delivered since the subscription -- snapshot first -- yields *)
Theorem replay_eq : forall n steps s p,
  let st := run cfg_fixed n steps in
  subscribed st s p = true ->
  replay (st_hist st s p) [] = index_at (st_tree st) p /\ st_mirror st s p = index_at (st_tree st) p.
Proof.
  intros n steps s p st Hs. pose proof (run_Inv cfg_fixed n steps cfg_fixed_ok) as HI. fold st in HI.
  rewrite (mA_hist st (proj1 HI) s p). split; apply (Inv_mirror st s p HI Hs).
Qed.

(* nothing is left pending at a quiescent point, and a client holds nothing for nodes it is not subscribed to *)
Theorem quiescent_clean : forall n steps,
  let st := run cfg_fixed n steps in
  st_pend st = [] /\ forall s p, subscribed st s p = false -> st_mirror st s p = [].
Proof.
  intros n steps st. destruct (run_Inv cfg_fixed n steps cfg_fixed_ok) as (M & _ & Hp). fold st in M, Hp.
  split; [exact Hp | intros s p Hs; apply (mA_unsub st M s p Hs)].
Qed.

Theorem absent_child_not_indexed : forall n steps p k,
  let t := st_tree (run cfg_fixed n steps) in has_node t (p ++ [k]) = false -> ~ In k (index_at t p).
Proof.
  intros n steps p k t Hh Hin. destruct (index_inv n steps p) as [_ H]. fold t in H. rewrite (H k Hin) in Hh. discriminate.
Qed.

(* remove_drops_entry: removing a node (with its subtree) removes it from the tree and from its parent's index *)
Theorem remove_drops_entry : forall st v, Mid st -> has_node (st_tree st) v = true -> 2 <= length v ->
  let st' := prim_remove_node st v in
  has_node (st_tree st') v = false /\ ~ In (last_name v) (index_at (st_tree st') (parent_of v)) /\ Mid st'.
Proof.
  intros st v HM Hh Hl st'. pose proof (prim_remove_node_Mid st v HM) as HM'. fold st' in HM'.
  assert (Hgone : has_node (st_tree st') v = false).
  { unfold st', prim_remove_node, remove_child_rec. rewrite Hh, (proj2 (Nat.leb_le _ _) Hl).
    simpl. rewrite has_node_delete, is_prefix_refl. apply andb_false_r. }
  split; [exact Hgone|]. split; [|exact HM'].
  intro Hin. apply (twf_index _ _ (mA_twf _ (proj1 HM'))) in Hin.
  unfold parent_of, last_name in Hin. rewrite <- app_removelast_last in Hin; [congruence|].
  intros ->. inversion Hl.
Qed.

(* every op of the delivered stream can be applied by a strict client (insert positions within the replica,
   remove positions holding the named key), starting from nothing *)
Theorem log_fits : forall n steps s p, ops_fit (st_hist (run cfg_fixed n steps) s p) [] = true.
Proof.
  intros n steps s p. destruct (run_Inv cfg_fixed n steps cfg_fixed_ok) as (M & _ & _). apply (mA_hfit _ M).
Qed.

(* a session that leaves takes its nodes and its subscriptions with it; the invariant goes on *)
Theorem detach_clean : forall cfg st s, cfg_ok cfg -> Inv st -> s < st_n st -> has_node (st_tree st) [NS s] = true ->
  let st' := exec cfg s st CDetach in
  Inv st' /\ st_subs st' s = [] /\ forall p, own s p = true -> has_node (st_tree st') p = false /\ index_at (st_tree st') p = [].
Proof.
  intros cfg st s Hc HI Hlt Hh st'. split; [apply exec_Inv; assumption|].
  unfold st', exec. cbv iota. rewrite (proj2 (Nat.ltb_lt _ _) Hlt), Hh. simpl andb. cbv iota.
  split; [simpl; rewrite Nat.eqb_refl; reflexivity|].
  intros p Ho. simpl st_tree. unfold flush.
  destruct (fold_deliver_fields (st_pend (remove_child_rec st [NS s])) (with_pend (remove_child_rec st [NS s]) [])) as (_ & B & _).
  rewrite B. simpl st_tree. unfold remove_child_rec. rewrite Hh. simpl st_tree.
  assert (Hp : is_prefix [NS s] p = true).
  { destruct p as [|[x|x|x] p]; simpl in Ho; try discriminate. apply Nat.eqb_eq in Ho. subst x.
    apply (is_prefix_app [NS s] p). }
  rewrite has_node_delete, index_at_delete_subtree, Hp. split; [apply andb_false_r | reflexivity].
Qed.

(* A quiet removal keeps every index well-formed (index_inv does not depend on notifications) and the flag
   invariant; it changes no index except the parent's (which loses the entry) and those of the removed nodes; so
   every replica other than those of the parent and of the removed subtree is still exact.  The replicas of the
   parent's index are stale until their holders take a new snapshot -- that is what "quietly" means. *)
Theorem quiet_frame : forall st v, Mid st ->
  let st' := remove_child_quiet st v in
  twf (st_tree st') /\ I6 st' /\
  (forall p, p <> parent_of v -> is_prefix v p = false -> index_at (st_tree st') p = index_at (st_tree st) p) /\
  (forall s p, subscribed st' s p = true -> p <> parent_of v -> is_prefix v p = false ->
     replay (pend_for (st_pend st') s p) (st_mirror st' s p) = index_at (st_tree st') p) /\
  (has_node (st_tree st) v = true ->
     ~ In (last_name v) (index_at (st_tree st') (parent_of v)) /\
     forall p, is_prefix v p = true -> has_node (st_tree st') p = false).
Proof.
  intros st v [M H6] st'. unfold st', remove_child_quiet.
  destruct (has_node (st_tree st) v) eqn:Eh.
  2:{ split; [apply (mA_twf st M)|]. split; [exact H6|]. split; [reflexivity|].
      split; [intros s p Hs _ _; apply (mA_sub st M s p Hs) | discriminate]. }
  (* the parent's index changes as in a notified removal; only the notification is missing *)
  destruct (prim_remove_entry_spec st (parent_of v) (last_name v) M) as (_ & _ & _ & Hother & _).
  destruct (prim_remove_entry_shrinks (parent_of v) st (last_name v) M) as (M1 & [_ Hshrink] & Hgone).
  pose proof (mA_twf _ M1) as W1. rewrite prim_remove_entry_tree in W1, Hother, Hshrink, Hgone.
  set (t1 := match lookup (st_tree st) (parent_of v) with Some n => _ | None => _ end) in *.
  assert (Hidx : forall p, is_prefix v p = false -> index_at (delete_subtree t1 v) p = index_at t1 p).
  { intros p Hp. rewrite index_at_delete_subtree, Hp. reflexivity. }
  simpl st_tree. split; [apply twf_delete_subtree; assumption|]. split; [|split; [|split]].
  - apply (I6_shrink st _ H6). split; [reflexivity|]. intros q x. simpl. rewrite index_at_delete_subtree.
    destruct (is_prefix v q); [intros [] | apply Hshrink].
  - intros p Hp Hv. rewrite (Hidx p Hv). apply Hother. exact Hp.
  - intros s p Hs Hp Hv. simpl. rewrite (Hidx p Hv), (Hother p Hp). apply (mA_sub st M s p Hs).
  - intros _. split.
    + rewrite index_at_delete_subtree. destruct (is_prefix v (parent_of v)); [intros [] | exact Hgone].
    + intros p Hp. rewrite has_node_delete, Hp. apply andb_false_r.
Qed.
