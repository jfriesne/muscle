(* Refl/IndexModelProofs.v -- C13: invariants of the index state machine of Refl/IndexModel.v.
   Inv (at every point where a client can observe: after the push that follows each command):
     - the tree is well-formed: every index lists only existing children, each once      (twf)
     - nothing is pending
     - every client's replica of every node it is subscribed to equals the server's index
     - what was delivered since the subscription replays (from nothing) to that replica
     - a session whose _indexingPresent flag is clear owns no non-empty index             (I6)
   Mid: the same while a command is being handled, with "replica" replaced by
        "replica after replaying what is still pending for that client and node". *)
From Coq Require Import List Arith Bool.
Import ListNotations.
From Muscle Require Import Refl.Index Refl.IndexProofs Refl.IndexModel.

(* the ops pending (or being delivered) for client s and node p, in order *)
Definition pend_for (pe : list event) (s : nat) (p : path) : list iop :=
  flat_map (fun e : event => let '(s', p', o) := e in if Nat.eqb s' s && path_eqb p' p then [o] else []) pe.

Record MidA (st : state) : Prop := mkMidA {
  mA_twf : twf (st_tree st);
  mA_sub : forall s p, subscribed st s p = true ->
           replay (pend_for (st_pend st) s p) (st_mirror st s p) = index_at (st_tree st) p;
  mA_unsub : forall s p, subscribed st s p = false -> st_mirror st s p = [] /\ pend_for (st_pend st) s p = [];
  mA_hist : forall s p, replay (st_hist st s p) [] = st_mirror st s p;
  mA_n : forall s, st_n st <= s -> st_subs st s = [];
  (* every delivered or pending op can be applied by a strict client *)
  mA_fit : forall s p, subscribed st s p = true -> ops_fit (pend_for (st_pend st) s p) (st_mirror st s p) = true;
  mA_hfit : forall s p, ops_fit (st_hist st s p) [] = true;
  (* a client keeps no history for a node it is not subscribed to *)
  mA_hunsub : forall s p, subscribed st s p = false -> st_hist st s p = []
}.

Definition J (st : state) (s : nat) : Prop :=
  st_ipres st s = true \/ forall p, own s p = true -> index_at (st_tree st) p = [].
Definition I6 (st : state) : Prop := forall s, J st s.
Definition I6x (s : nat) (st : state) : Prop := forall s', s' <> s -> J st s'.

Definition Mid (st : state) : Prop := MidA st /\ I6 st.
Definition Inv (st : state) : Prop := MidA st /\ I6 st /\ st_pend st = [].

Lemma mA_logs : forall st s p, MidA st -> subscribed st s p = true ->
  logs (pend_for (st_pend st) s p) (st_mirror st s p) (index_at (st_tree st) p).
Proof. intros st s p M H. split; [apply (mA_fit st M), H | apply (mA_sub st M), H]. Qed.

Lemma mA_hlogs : forall st s p, MidA st -> logs (st_hist st s p) [] (st_mirror st s p).
Proof. intros st s p M. split; [apply (mA_hfit st M) | apply (mA_hist st M)]. Qed.

Lemma mA_idle : forall st s p, MidA st -> subscribed st s p = false ->
  st_mirror st s p = [] /\ pend_for (st_pend st) s p = [] /\ st_hist st s p = [].
Proof.
  intros st s p M H. destruct (mA_unsub st M s p H). repeat split; try assumption. apply (mA_hunsub st M s p H).
Qed.

Lemma MidA_intro : forall st, twf (st_tree st) ->
  (forall s p, subscribed st s p = true ->
     logs (pend_for (st_pend st) s p) (st_mirror st s p) (index_at (st_tree st) p)) ->
  (forall s p, subscribed st s p = false ->
     st_mirror st s p = [] /\ pend_for (st_pend st) s p = [] /\ st_hist st s p = []) ->
  (forall s p, logs (st_hist st s p) [] (st_mirror st s p)) ->
  (forall s, st_n st <= s -> st_subs st s = []) -> MidA st.
Proof.
  intros st W S U H N. constructor; try assumption.
  - intros s p E. apply (S s p E).
  - intros s p E. destruct (U s p E) as (A & B & _). split; assumption.
  - intros s p. apply (H s p).
  - intros s p E. apply (S s p E).
  - intros s p. apply (H s p).
  - intros s p E. apply (U s p E).
Qed.

Lemma subscribed_lt : forall st s p, MidA st -> subscribed st s p = true -> s < st_n st.
Proof.
  intros st s p M H. destruct (Nat.lt_ge_cases s (st_n st)) as [Hl|Hg]; [exact Hl|].
  unfold subscribed in H. rewrite (mA_n st M s Hg) in H. discriminate.
Qed.

Lemma pend_for_app : forall a b s p, pend_for (a ++ b) s p = pend_for a s p ++ pend_for b s p.
Proof. intros. unfold pend_for. apply flat_map_app. Qed.

Lemma pend_for_map : forall s' p' ops s p,
  pend_for (map (fun o => (s', p', o)) ops) s p = if Nat.eqb s' s && path_eqb p' p then ops else [].
Proof.
  intros s' p' ops s p. induction ops as [|o t IH]; simpl.
  - destruct (Nat.eqb s' s && path_eqb p' p); reflexivity.
  - unfold pend_for in *. simpl. rewrite IH.
    destruct (Nat.eqb s' s && path_eqb p' p); reflexivity.
Qed.

Lemma pend_for_notify : forall st p ops s q,
  pend_for (notify_events st p ops) s q = if (s <? st_n st) && subscribed st s p && path_eqb p q then ops else [].
Proof.
  intros st p ops s q. unfold notify_events. induction (st_n st) as [|n IH]; [reflexivity|].
  rewrite seq_S, flat_map_app, pend_for_app, IH. simpl. rewrite app_nil_r.
  assert (Hn : forall b : bool, pend_for (if b then map (fun o => (n, p, o)) ops else []) s q
                         = if Nat.eqb n s && b && path_eqb p q then ops else []).
  { intros [|]; [rewrite pend_for_map|]; destruct (Nat.eqb n s); reflexivity. }
  rewrite Hn. destruct (Nat.eqb_spec n s) as [->|Hne].
  - rewrite Nat.ltb_irrefl. unfold Nat.ltb. simpl. rewrite Nat.leb_refl. reflexivity.
  - replace (s <? S n) with (s <? n); [apply app_nil_r|].
    apply eq_true_iff_eq. rewrite !Nat.ltb_lt, Nat.lt_succ_r, Nat.lt_eq_cases.
    split; [left; assumption | intros [H|H]; [exact H | contradiction Hne; symmetry; exact H]].
Qed.

Lemma subscribed_subs : forall st st' s p, st_subs st' = st_subs st -> subscribed st' s p = subscribed st s p.
Proof. intros st st' s p H. unfold subscribed. rewrite H. reflexivity. Qed.

Definition same_server (st st' : state) : Prop :=
  st_n st' = st_n st /\ st_tree st' = st_tree st /\ st_subs st' = st_subs st /\
  st_ipres st' = st_ipres st /\ st_refl st' = st_refl st /\ st_pend st' = st_pend st.

Lemma deliver1_fields : forall st e, same_server st (deliver1 st e).
Proof. intros st [[s p] o]. repeat split; reflexivity. Qed.

Lemma fold_deliver_fields : forall pe st, same_server st (fold_left deliver1 pe st).
Proof.
  intros pe st. apply (fold_left_inv _ _ (same_server st)); [|repeat split; reflexivity].
  intros st' e (A & B & C & D & E & F). destruct (deliver1_fields st' e) as (A' & B' & C' & D' & E' & F').
  repeat split; congruence.
Qed.

Lemma fold_deliver_client : forall pe st s p,
  let new := if subscribed st s p then pend_for pe s p else [] in
  st_mirror (fold_left deliver1 pe st) s p = replay new (st_mirror st s p) /\
  st_hist (fold_left deliver1 pe st) s p = st_hist st s p ++ new.
Proof.
  induction pe as [|[[s' p'] o] pe IH]; intros st s p; cbv zeta.
  - destruct (subscribed st s p); rewrite app_nil_r; split; reflexivity.
  - cbn [fold_left]. destruct (IH (deliver1 st (s', p', o)) s p) as [IHm IHh]. rewrite IHm, IHh. clear IH IHm IHh.
    rewrite (subscribed_subs st (deliver1 st (s', p', o)) s p) by apply deliver1_fields.
    change (pend_for ((s', p', o) :: pe) s p)
      with ((if Nat.eqb s' s && path_eqb p' p then [o] else []) ++ pend_for pe s p).
    cbn [deliver1 st_mirror st_hist].
    destruct (Nat.eqb_spec s s') as [<-|Hs]; [destruct (path_eqP p p') as [<-|Hp]|].
    + rewrite Nat.eqb_refl, path_eqb_refl. cbn [andb].
      destruct (subscribed st s p); [split; [reflexivity | symmetry; apply app_assoc] | split; reflexivity].
    + rewrite Nat.eqb_refl, (path_eqb_neq p' p) by congruence. split; reflexivity.
    + rewrite (proj2 (Nat.eqb_neq s' s)) by congruence. split; reflexivity.
Qed.

(* all that the boundary invariant says, except that the replicas of subscribers are the index *)
Record Quiet (st : state) : Prop := mkQuiet {
  q_pend : st_pend st = [];
  q_twf : twf (st_tree st);
  q_I6 : I6 st;
  q_idle : forall s p, subscribed st s p = false -> st_mirror st s p = [] /\ st_hist st s p = [];
  q_hist : forall s p, logs (st_hist st s p) [] (st_mirror st s p);
  q_n : forall s, st_n st <= s -> st_subs st s = []
}.

Lemma MidA_Quiet : forall st, MidA st -> I6 st -> Quiet (with_pend st []).
Proof.
  intros st M H6. constructor; [reflexivity | apply (mA_twf st M) | exact H6 | | | apply (mA_n st M)].
  - intros s p Es. destruct (mA_idle st s p M Es) as (A & _ & C). split; assumption.
  - intros s p. apply (mA_hlogs st s p M).
Qed.

Lemma Inv_Quiet : forall st, Inv st -> Quiet st.
Proof. intros st (M & H6 & Hp). destruct (MidA_Quiet st M H6). constructor; assumption. Qed.

Lemma Inv_intro : forall st, Quiet st ->
  (forall s p, subscribed st s p = true -> st_mirror st s p = index_at (st_tree st) p) -> Inv st.
Proof.
  intros st [Hp W H6 U H N] S. split; [|split; assumption].
  apply MidA_intro; try assumption; intros s p Es; rewrite Hp.
  - rewrite <- (S s p Es). apply logs_nil.
  - destruct (U s p Es). repeat split; assumption.
Qed.

Lemma deliver_Inv : forall st evs, Quiet st ->
  (forall s p, subscribed st s p = true -> logs (pend_for evs s p) (st_mirror st s p) (index_at (st_tree st) p)) ->
  Inv (fold_left deliver1 evs st).
Proof.
  intros st evs [Hp W H6 U H N] S.
  destruct (fold_deliver_fields evs st) as (A & B & C & D & _ & F).
  assert (Hsub : forall s p, subscribed (fold_left deliver1 evs st) s p = subscribed st s p).
  { intros s p. apply subscribed_subs, C. }
  assert (Hc : forall s p,
            st_mirror (fold_left deliver1 evs st) s p
              = (if subscribed st s p then index_at (st_tree st) p else st_mirror st s p) /\
            st_hist (fold_left deliver1 evs st) s p
              = st_hist st s p ++ if subscribed st s p then pend_for evs s p else []).
  { intros s p. destruct (fold_deliver_client evs st s p) as [Em Eh]. rewrite Em, Eh.
    destruct (subscribed st s p) eqn:Es; [rewrite (proj2 (S s p Es))|]; split; reflexivity. }
  apply Inv_intro; [constructor|].
  - rewrite F. exact Hp.
  - rewrite B. exact W.
  - intro s. unfold J. rewrite D, B. apply H6.
  - intros s p Es. rewrite Hsub in Es. destruct (Hc s p) as [-> ->]. rewrite Es, app_nil_r. apply U, Es.
  - intros s p. destruct (Hc s p) as [-> ->]. destruct (subscribed st s p) eqn:Es; [|rewrite app_nil_r; apply H].
    eapply logs_app; [apply H | apply S, Es].
  - intros s Hs. rewrite A in Hs. rewrite C. apply N, Hs.
  - intros s p Es. rewrite Hsub in Es. rewrite (proj1 (Hc s p)), Es, B. reflexivity.
Qed.

(* PushSubscriptionMessages re-establishes the boundary invariant *)
Lemma flush_Inv : forall st, MidA st -> I6 st -> Inv (flush st).
Proof.
  intros st M H6. apply deliver_Inv; [apply MidA_Quiet; assumption | intros s p Es; apply (mA_logs st s p M Es)].
Qed.

Lemma tree_step_MidA : forall st t' p l' ops,
  MidA st -> twf t' ->
  (forall q, index_at t' q = if path_eqb p q then l' else index_at (st_tree st) q) ->
  logs ops (index_at (st_tree st) p) l' ->
  MidA (notify (with_tree st t') p ops).
Proof.
  intros st t' p l' ops M W Hidx L.
  assert (Hpe : forall s q, pend_for (st_pend (notify (with_tree st t') p ops)) s q
              = pend_for (st_pend st) s q ++ if subscribed st s p && path_eqb p q then ops else []).
  { intros s q. simpl. rewrite pend_for_app, pend_for_notify. simpl.
    change (subscribed (with_tree st t') s p) with (subscribed st s p).
    destruct (subscribed st s p) eqn:Es; [|rewrite andb_false_r; reflexivity].
    rewrite (proj2 (Nat.ltb_lt _ _) (subscribed_lt st s p M Es)). reflexivity. }
  apply MidA_intro; [exact W | | | intros s q; apply (mA_hlogs st s q M) | apply (mA_n st M)];
    intros s q Es; change (subscribed (notify (with_tree st t') p ops) s q) with (subscribed st s q) in Es;
    rewrite Hpe.
  - simpl st_mirror. simpl st_tree. rewrite Hidx. eapply logs_app; [apply (mA_logs st s q M Es)|].
    destruct (path_eqP p q) as [<-|]; [rewrite Es; exact L | rewrite andb_false_r; apply logs_nil].
  - destruct (mA_idle st s q M Es) as (U1 & U2 & U3). rewrite U2. repeat split; try assumption.
    destruct (path_eqP p q) as [<-|]; [rewrite Es | rewrite andb_false_r]; reflexivity.
Qed.

Lemma tree_same_MidA : forall st t',
  MidA st -> twf t' -> (forall q, index_at t' q = index_at (st_tree st) q) -> MidA (with_tree st t').
Proof.
  intros st t' M Hw Hsame. apply MidA_intro; [exact Hw | | | |]; simpl.
  - intros s q Hs. rewrite Hsame. apply (mA_logs st s q M Hs).
  - intros s q. apply (mA_idle st s q M).
  - intros s q. apply (mA_hlogs st s q M).
  - apply (mA_n st M).
Qed.

Lemma MidA_set_ipres : forall st s, MidA st -> MidA (set_ipres st s).
Proof. intros st s M. destruct M. constructor; assumption. Qed.

Lemma own_inj : forall s s' p, own s p = true -> own s' p = true -> s = s'.
Proof.
  intros s s' [|[x|x|x] p] H1 H2; simpl in *; try discriminate.
  apply Nat.eqb_eq in H1. apply Nat.eqb_eq in H2. congruence.
Qed.

Lemma own_app : forall s p r, own s p = true -> own s (p ++ r) = true.
Proof. intros s [|x p] r H; simpl in *; [discriminate | exact H]. Qed.

Lemma own_root : forall s, own s [NS s] = true.
Proof. intro s. simpl. apply Nat.eqb_refl. Qed.

Lemma I6_I6x : forall st s, I6 st -> I6x s st.
Proof. intros st s H s' _. apply H. Qed.

Lemma I6_set_ipres : forall st s, I6x s st -> I6 (set_ipres st s).
Proof.
  intros st s H s'. unfold J. simpl. destruct (Nat.eqb s' s) eqn:E; [left; reflexivity|].
  apply Nat.eqb_neq in E. destruct (H s' E) as [H1|H1]; [left|right]; exact H1.
Qed.

Lemma I6x_set_ipres : forall st s s0, I6x s st -> I6x s (set_ipres st s0).
Proof.
  intros st s s0 H s' Hne. unfold J. simpl. destruct (H s' Hne) as [H1|H1]; [left|right; exact H1].
  rewrite H1. destruct (Nat.eqb s' s0); reflexivity.
Qed.

Definition shrinks (st st' : state) : Prop :=
  st_ipres st' = st_ipres st /\ forall q x, In x (index_at (st_tree st') q) -> In x (index_at (st_tree st) q).

Lemma shrinks_refl : forall st, shrinks st st.
Proof. intro st. split; [reflexivity | auto]. Qed.

Lemma shrinks_trans : forall a b c, shrinks a b -> shrinks b c -> shrinks a c.
Proof. intros a b c [I1 S1] [I2 S2]. split; [congruence | auto]. Qed.

Lemma shrinks_nil : forall q st st', shrinks st st' -> index_at (st_tree st) q = [] -> index_at (st_tree st') q = [].
Proof. intros q st st' [_ S] H. apply incl_l_nil. rewrite <- H. exact (S q). Qed.

(* indices that were empty stay empty: the flag invariant survives *)
Lemma J_shrink : forall st st' s, shrinks st st' -> J st s -> J st' s.
Proof.
  intros st st' s S [H|H]; [left; rewrite (proj1 S); exact H | right; intros p Hp; eapply shrinks_nil, H, Hp; exact S].
Qed.

Lemma I6_shrink : forall st st', I6 st -> shrinks st st' -> I6 st'.
Proof. intros st st' H S s. apply (J_shrink st _ s S), H. Qed.

(* a change confined to a node owned by s does not concern the other sessions *)
Lemma J_other : forall st st' s s' p, st_ipres st' = st_ipres st -> own s p = true -> s' <> s ->
  (forall q, q <> p -> index_at (st_tree st') q = index_at (st_tree st) q) -> J st s' -> J st' s'.
Proof.
  intros st st' s s' p Hi Ho Hne Hq [H|H]; [left; rewrite Hi; exact H | right].
  intros q Hoq. rewrite Hq; [apply H, Hoq|]. intro E. subst q. apply Hne. eapply own_inj; eassumption.
Qed.

Lemma fold_shrinks : forall (A : Type) (f : state -> A -> state) (Q : A -> state -> Prop),
  (forall st a, MidA st -> MidA (f st a) /\ shrinks st (f st a) /\ Q a (f st a)) ->
  (forall a st st', shrinks st st' -> Q a st -> Q a st') ->
  forall l st, MidA st ->
    MidA (fold_left f l st) /\ shrinks st (fold_left f l st) /\ forall a, In a l -> Q a (fold_left f l st).
Proof.
  intros A f Q Hf HQ. induction l as [|a l IH]; intros st M; simpl.
  - split; [exact M | split; [apply shrinks_refl | intros a []]].
  - destruct (Hf st a M) as (M1 & S1 & Q1). destruct (IH _ M1) as (M2 & S2 & Q2).
    split; [exact M2 | split; [eapply shrinks_trans; eassumption|]].
    intros b [<-|Hb]; [apply (HQ _ _ _ S2 Q1) | apply Q2, Hb].
Qed.

Lemma node_at_wf : forall st p, MidA st -> has_node (st_tree st) p = true ->
  lookup (st_tree st) p = Some (node_at st p) /\ wfn (kids_of (st_tree st) p) (node_at st p).
Proof.
  intros st p M H. destruct (has_node_lookup _ _ H) as [n Hl]. unfold node_at. rewrite Hl.
  split; [reflexivity | apply (proj2 (mA_twf st M)), Hl].
Qed.

Lemma index_at_absent : forall t p, has_node t p = false -> index_at t p = [].
Proof. intros t p H. unfold index_at, has_node in *. destruct (lookup t p); [discriminate | reflexivity]. Qed.

Lemma put_idx_MidA : forall st p n n' ops,
  MidA st -> lookup (st_tree st) p = Some n -> wfn (kids_of (st_tree st) p) n' ->
  logs ops (index_of n) (index_of n') -> MidA (put_idx st p n' ops).
Proof.
  intros st p n n' ops M Hl Hw L. apply (tree_step_MidA st _ p (index_of n')).
  - exact M.
  - apply twf_set_node; [apply (mA_twf st M) | exact Hw].
  - intro q. apply (index_at_set_node _ _ n), Hl.
  - rewrite (index_at_lookup _ _ _ Hl). exact L.
Qed.

Lemma put_idx_shrinks : forall st p n n' ops, lookup (st_tree st) p = Some n ->
  incl (index_of n') (index_of n) -> shrinks st (put_idx st p n' ops).
Proof.
  intros st p n n' ops Hl Sub. split; [reflexivity|]. intros q x. simpl. rewrite (index_at_set_node _ _ n) by exact Hl.
  destruct (path_eqP p q) as [<-|]; [rewrite (index_at_lookup _ _ _ Hl); apply Sub | auto].
Qed.

Lemma own_step_Mid : forall st s t' p l' ops, Mid st -> own s p = true -> twf t' ->
  (forall q, index_at t' q = if path_eqb p q then l' else index_at (st_tree st) q) ->
  logs ops (index_at (st_tree st) p) l' ->
  Mid (set_ipres (notify (with_tree st t') p ops) s).
Proof.
  intros st s t' p l' ops [M H6] Ho W Hidx L. split.
  - apply MidA_set_ipres, (tree_step_MidA st t' p l'); assumption.
  - apply I6_set_ipres. intros s' Hne. apply (J_other st _ s s' p); [reflexivity | exact Ho | exact Hne | | apply H6].
    intros q Hq. simpl. rewrite Hidx, path_eqb_neq by congruence. reflexivity.
Qed.

Lemma put_idx_own_Mid : forall st s p n n' ops, Mid st -> own s p = true ->
  lookup (st_tree st) p = Some n -> wfn (kids_of (st_tree st) p) n' ->
  logs ops (index_of n) (index_of n') -> Mid (set_ipres (put_idx st p n' ops) s).
Proof.
  intros st s p n n' ops HM Ho Hl Hw L. apply (own_step_Mid st s _ p (index_of n')); try assumption.
  - apply twf_set_node; [apply (mA_twf st (proj1 HM)) | exact Hw].
  - intro q. apply (index_at_set_node _ _ n), Hl.
  - rewrite (index_at_lookup _ _ _ Hl). exact L.
Qed.

Lemma prim_remove_entry_tree : forall st p k, st_tree (prim_remove_entry st p k) =
  match lookup (st_tree st) p with
  | Some n => set_node (st_tree st) p (fst (remove_index_entry n k))
  | None => st_tree st
  end.
Proof.
  intros st p k. unfold prim_remove_entry, has_node, node_at.
  destruct (lookup (st_tree st) p) as [n|]; [destruct (remove_index_entry n k)|]; reflexivity.
Qed.

Lemma prim_remove_entry_spec : forall st p k, MidA st ->
  let st' := prim_remove_entry st p k in
  MidA st' /\ st_ipres st' = st_ipres st /\ map fst (st_tree st') = map fst (st_tree st) /\
  (forall q, q <> p -> index_at (st_tree st') q = index_at (st_tree st) q) /\
  (forall x, In x (index_at (st_tree st') p) <-> In x (index_at (st_tree st) p) /\ x <> k).
Proof.
  intros st p k M. unfold prim_remove_entry.
  destruct (has_node (st_tree st) p) eqn:Eh.
  2:{ cbv zeta. rewrite (index_at_absent _ _ Eh). do 3 (split; [assumption || reflexivity|]). split; [reflexivity | intro x; split; [intros [] | intros [[] _]]]. }
  destruct (node_at_wf st p M Eh) as [Hl Wn].
  destruct (remove_index_entry (node_at st p) k) as [n' ops] eqn:Er.
  destruct (remove_index_entry_spec _ _ _ _ _ Wn Er) as (W & L & I).
  cbv zeta. split; [eapply put_idx_MidA; eassumption|]. split; [reflexivity|]. split; [apply keys_set_node|].
  simpl. split; [intros q Hq | intro x]; rewrite (index_at_set_node _ _ _ _ _ Hl).
  - rewrite path_eqb_neq by congruence. reflexivity.
  - rewrite path_eqb_refl, (index_at_lookup _ _ _ Hl). apply I.
Qed.

Lemma prim_remove_entry_shrinks : forall p st k, MidA st ->
  MidA (prim_remove_entry st p k) /\ shrinks st (prim_remove_entry st p k) /\
  ~ In k (index_at (st_tree (prim_remove_entry st p k)) p).
Proof.
  intros p st k M. destruct (prim_remove_entry_spec st p k M) as (M' & Hi & _ & O & I).
  split; [exact M' | split; [split; [exact Hi|] | intro Hx; apply I in Hx; destruct Hx as [_ Hx]; exact (Hx eq_refl)]].
  intros q x. destruct (path_eqP q p) as [->|Hne]; [intro Hx; apply I, Hx | rewrite (O q Hne); auto].
Qed.

Lemma prim_remove_entry_Mid : forall st p k, Mid st -> Mid (prim_remove_entry st p k).
Proof.
  intros st p k [M H6]. destruct (prim_remove_entry_shrinks p st k M) as (M' & S & _).
  split; [exact M' | apply (I6_shrink st _ H6 S)].
Qed.

Lemma drain_node_spec : forall st q, MidA st ->
  MidA (drain_node st q) /\ shrinks st (drain_node st q) /\ index_at (st_tree (drain_node st q)) q = [].
Proof.
  intros st q M. unfold drain_node.
  destruct (fold_shrinks _ (fun st k => prim_remove_entry st q k) (fun k st => ~ In k (index_at (st_tree st) q))
              (prim_remove_entry_shrinks q) (fun k st st' S H Hin => H (proj2 S q k Hin))
              (kids_of (st_tree st) q) st M) as (M' & S' & D').
  split; [exact M' | split; [exact S'|]]. apply incl_l_nil. intros x Hx. exfalso. apply (D' x); [|exact Hx].
  apply kids_of_In, (twf_index _ q (mA_twf st M)), S', Hx.
Qed.

(* parent->RemoveChild(name, this, true) *)
Lemma remove_child_rec_Mid : forall st v, Mid st -> Mid (remove_child_rec st v).
Proof.
  intros st v [M H6]. unfold remove_child_rec.
  destruct (has_node (st_tree st) v) eqn:Eg; [|split; assumption].
  destruct (fold_shrinks _ drain_node (fun q st => index_at (st_tree st) q = []) drain_node_spec shrinks_nil
              (subtree_paths (st_tree st) v) st M) as (M1 & S1 & D1).
  set (st1 := fold_left drain_node (subtree_paths (st_tree st) v) st) in *.
  destruct (prim_remove_entry_shrinks (parent_of v) st1 (last_name v) M1) as (M2 & S2 & G2).
  set (st2 := prim_remove_entry st1 (parent_of v) (last_name v)) in *.
  pose proof (shrinks_trans _ _ _ S1 S2) as S.
  split.
  - apply tree_same_MidA; [exact M2 | apply twf_delete_subtree; [apply (mA_twf st2 M2) | exact G2] |].
    intro q. rewrite index_at_delete_subtree. destruct (is_prefix v q) eqn:Ep; [|reflexivity].
    (* the nodes at or below v hold an empty index by now *)
    symmetry. destruct (has_node (st_tree st) q) eqn:Eh.
    + apply (shrinks_nil q _ _ S2), D1, subtree_paths_In. split; assumption.
    + apply (shrinks_nil q _ _ S), index_at_absent, Eh.
  - apply (I6_shrink st _ H6). split; [apply S|]. intros q x. simpl. rewrite index_at_delete_subtree.
    destruct (is_prefix v q); [intros [] | apply S].
Qed.

Lemma prim_remove_node_Mid : forall st v, Mid st -> Mid (prim_remove_node st v).
Proof.
  intros st v HM. unfold prim_remove_node. destruct (2 <=? length v); [apply remove_child_rec_Mid|]; exact HM.
Qed.

Lemma prim_remove_entry_at_Mid : forall st p pos, Mid st -> Mid (prim_remove_entry_at st p pos).
Proof.
  intros st p pos [M H6]. unfold prim_remove_entry_at.
  destruct (has_node (st_tree st) p) eqn:Eh; [|split; assumption].
  destruct (node_at_wf st p M Eh) as [Hl Wn].
  destruct (remove_index_entry_at (node_at st p) pos) as [n' ops] eqn:Er.
  destruct (remove_index_entry_at_spec _ _ _ _ _ Wn Er) as (W & L & Sub).
  split; [eapply put_idx_MidA; eassumption | apply (I6_shrink st _ H6); eapply put_idx_shrinks; eassumption].
Qed.

Lemma prim_insert_entry_at_Mid : forall st s p pos k, Mid st -> Mid (prim_insert_entry_at st s p pos k).
Proof.
  intros st s p pos k HM. unfold prim_insert_entry_at.
  destruct (own s p && has_node (st_tree st) p && mem k (kids_of (st_tree st) p)
            && negb (mem k (index_at (st_tree st) p)) && (pos <=? length (index_at (st_tree st) p))) eqn:Eg; [|exact HM].
  apply andb_prop in Eg. destruct Eg as [Eg Epos]. apply andb_prop in Eg. destruct Eg as [Eg Enot].
  apply andb_prop in Eg. destruct Eg as [Eg Ek]. apply andb_prop in Eg. destruct Eg as [Ho Eh].
  destruct (node_at_wf st p (proj1 HM) Eh) as [Hl Wn]. rewrite (index_at_lookup _ _ _ Hl) in Enot, Epos.
  destruct (insert_index_entry_at (kids_of (st_tree st) p) (node_at st p) pos k) as [n' ops] eqn:Ei.
  apply negb_true_iff, mem_false in Enot. apply Nat.leb_le in Epos.
  destruct (insert_index_entry_at_spec _ _ _ _ _ _ Wn Ek Enot Epos Ei) as (W & L & _).
  eapply put_idx_own_Mid; eassumption.
Qed.

Lemma add_node_Mid : forall st q, Mid st -> Mid (with_tree st (add_node (st_tree st) q)).
Proof.
  intros st q [M H6]. split.
  - apply tree_same_MidA; [exact M | apply twf_add_node; apply (mA_twf st M) | intro p; apply index_at_add_node].
  - apply (I6_shrink st _ H6). split; [reflexivity|]. intros p x. simpl. rewrite index_at_add_node. auto.
Qed.

Lemma insert_ordered_child_name : forall kids n b x, snd (fst (insert_ordered_child kids n b (Some x))) = x.
Proof.
  intros kids n b x. unfold insert_ordered_child.
  destruct (idx n); destruct (is_remove b); reflexivity.
Qed.

Lemma prim_insert_ordered_Mid : forall st s p b optname, Mid st -> Mid (prim_insert_ordered st s p b optname).
Proof.
  intros st s p b optname HM. unfold prim_insert_ordered.
  destruct (own s p && has_node (st_tree st) p) eqn:Eg; [|exact HM].
  apply andb_true_iff in Eg. destruct Eg as [Ho Eh].
  destruct (node_at_wf st p (proj1 HM) Eh) as [Hl Wn].
  destruct (insert_ordered_child (kids_of (st_tree st) p) (node_at st p) b optname) as [[n' nm] ops] eqn:Ei.
  destruct (has_node (st_tree st) (p ++ [nm])) eqn:Eh2; [exact HM|].
  assert (Hfresh : forall x, optname = Some x -> ~ In x (kids_of (st_tree st) p)).
  { intros x -> Hin. pose proof (insert_ordered_child_name (kids_of (st_tree st) p) (node_at st p) b x) as Hn.
    rewrite Ei in Hn. simpl in Hn. subst nm. apply kids_of_In in Hin. congruence. }
  destruct (insert_ordered_child_spec _ _ _ _ _ _ _ Wn Hfresh Ei) as (_ & W & L).
  apply (own_step_Mid st s _ p (index_of n')); try assumption.
  - eapply twf_insert_child; try eassumption. apply (mA_twf st (proj1 HM)).
  - intro q. rewrite index_at_add_node. apply (index_at_set_node _ _ _ _ _ Hl).
  - rewrite (index_at_lookup _ _ _ Hl). exact L.
Qed.

Lemma prim_reorder_Mid : forall cfg st s p c b, fix_reorder_ipres cfg = true -> Mid st ->
  Mid (prim_reorder cfg st s p c b).
Proof.
  intros cfg st s p c b Hfix HM. unfold prim_reorder. rewrite Hfix.
  destruct (own s p && has_node (st_tree st) p && has_node (st_tree st) (p ++ [c])) eqn:Eg; [|exact HM].
  apply andb_prop in Eg. destruct Eg as [Eg Ec]. apply andb_prop in Eg. destruct Eg as [Ho Eh].
  destruct (node_at_wf st p (proj1 HM) Eh) as [Hl Wn].
  destruct (reorder_child (kids_of (st_tree st) p) (node_at st p) c b) as [n' ops] eqn:Er.
  destruct (reorder_child_spec _ _ _ _ _ _ Wn (proj2 (kids_of_In _ _ _) Ec) Er) as [W L].
  eapply put_idx_own_Mid; eassumption.
Qed.

Lemma set_refl_Mid : forall st s v, Mid st -> Mid (set_refl st s v).
Proof. intros st s v [M H6]. split; [destruct M; constructor; assumption | exact H6]. Qed.
