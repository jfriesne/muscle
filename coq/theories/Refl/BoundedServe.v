(* Refl/BoundedServe.v -- C07, the statement itself: whatever the other clients send, in whatever order, whether they
   read their replies or not, a client that is attached and reading stays attached and reading, and its PING is
   answered in the very turn of the event loop that dispatches it.  Defines [shape] / [gshape] (who is attached, which
   gateways exist and which of them read) and [reads], in which the invariant is stated. *)
From Coq Require Import List NArith ZArith Bool Arith Lia.
From Muscle Require Import Refl.Base Refl.Tree Refl.Server Refl.Bounded Refl.BoundedSpec Refl.BoundedProofs
  Refl.BoundedInv.
Import ListNotations.

Section Serve.
Context {M : MatchOps}.
Variable fx : fixes.

Lemma find_gw_sid : forall l w g, find_gw l w = Some g -> g_sid g = w.
Proof.
  induction l as [|x l IH]; intros w g H; cbn [find_gw] in H.
  - discriminate.
  - destruct (N.eqb (g_sid x) w) eqn:E.
    + inversion H; subst. apply N.eqb_eq. exact E.
    + apply IH. exact H.
Qed.

Lemma find_gw_map : forall (f : gw -> gw) l w,
  (forall g, g_sid (f g) = g_sid g) ->
  find_gw (map f l) w = option_map f (find_gw l w).
Proof.
  intros f l w Hf. induction l as [|x l IH]; cbn [map find_gw].
  - reflexivity.
  - rewrite Hf. destruct (N.eqb (g_sid x) w); [reflexivity|exact IH].
Qed.

(* w's gateway exists and its client reads *)
Definition reads (l : list gw) (w : sid) : Prop := exists g, find_gw l w = Some g /\ g_blocked g = false.

Lemma find_gw_upd_gw : forall b s (f : gw -> gw) w g, (forall x, g_sid (f x) = g_sid x) ->
  find_gw (b_gws b) w = Some g -> find_gw (b_gws (upd_gw b s f)) w = Some (if N.eqb w s then f g else g).
Proof.
  intros b s f w g Hf Hg. unfold upd_gw. cbn [b_gws].
  rewrite find_gw_map by (intros x; destruct (N.eqb (g_sid x) s); [apply Hf|reflexivity]).
  rewrite Hg. cbn [option_map]. rewrite (find_gw_sid _ _ _ Hg). reflexivity.
Qed.

Lemma reads_upd_gw_other : forall b s (f : gw -> gw) w,
  s <> w -> (forall x, g_sid (f x) = g_sid x) -> reads (b_gws b) w -> reads (b_gws (upd_gw b s f)) w.
Proof.
  intros b s f w Hne Hf [g [Hg Hbl]]. exists g. split; [|exact Hbl]. rewrite (find_gw_upd_gw b s f w g Hf Hg).
  destruct (N.eqb w s) eqn:E; [apply N.eqb_eq in E; congruence|reflexivity].
Qed.

Lemma reads_app : forall l g w, reads l w -> reads (l ++ [g]) w.
Proof.
  intros l g w [g0 [Hg Hbl]]. exists g0. split; [|exact Hbl].
  induction l as [|x l IH]; cbn [app find_gw] in *.
  - discriminate.
  - destruct (N.eqb (g_sid x) w); [exact Hg|apply IH; exact Hg].
Qed.

Lemma reads_filter : forall l s w, s <> w -> reads l w -> reads (filter (fun g => negb (N.eqb (g_sid g) s)) l) w.
Proof.
  intros l s w Hne [g0 [Hg Hbl]]. exists g0. split; [|exact Hbl].
  induction l as [|x l IH]; cbn [filter find_gw] in *.
  - discriminate.
  - destruct (N.eqb (g_sid x) w) eqn:Ew.
    + apply N.eqb_eq in Ew. destruct (N.eqb (g_sid x) s) eqn:Es; [apply N.eqb_eq in Es; congruence|].
      cbn [negb find_gw]. rewrite (proj2 (N.eqb_eq _ _) Ew). exact Hg.
    + destruct (N.eqb (g_sid x) s); cbn [negb find_gw]; [apply IH; exact Hg|].
      rewrite Ew. apply IH. exact Hg.
Qed.

(* who is attached, and which gateways exist with which reading state: all that [serving] looks at, and what every
   command leaves as it is *)
Definition gshape (l : list gw) : list (sid * bool) := map (fun g => (g_sid g, g_blocked g)) l.
Definition shape (b : bserver) : list sid * list (sid * bool) := (ids (b_sv b), gshape (b_gws b)).

Lemma gshape_map : forall (f : gw -> gw) l,
  (forall g, g_sid (f g) = g_sid g) -> (forall g, g_blocked (f g) = g_blocked g) -> gshape (map f l) = gshape l.
Proof.
  intros f l Hs Hb. unfold gshape. rewrite map_map. apply map_ext. intros g. rewrite Hs, Hb. reflexivity.
Qed.

Lemma reads_gshape : forall l l' w, gshape l = gshape l' -> reads l w -> reads l' w.
Proof.
  induction l as [|x l IH]; intros l' w Hsh [g [Hg Hbl]]; cbn [find_gw] in Hg.
  - discriminate.
  - destruct l' as [|x' l']; [discriminate|]. unfold gshape in Hsh. cbn [map] in Hsh.
    inversion Hsh as [[Hsid Hblk Hrest]].
    destruct (N.eqb (g_sid x) w) eqn:E.
    + inversion Hg; subst g. exists x'. cbn [find_gw]. rewrite <- Hsid, E. split; [reflexivity|]. rewrite <- Hblk. exact Hbl.
    + destruct (IH l' w Hrest (ex_intro _ g (conj Hg Hbl))) as [g' [Hg' Hbl']].
      exists g'. cbn [find_gw]. rewrite <- Hsid, E. split; assumption.
Qed.

Lemma serving_alt : forall b w, serving b w <-> (In w (ids (b_sv b)) /\ reads (b_gws b) w).
Proof. intros b w. unfold serving, reads. rewrite get_session_ids. reflexivity. Qed.

Lemma serving_shape : forall b b' w, shape b' = shape b -> serving b w -> serving b' w.
Proof.
  intros b b' w Hsh Hs. apply serving_alt in Hs. apply serving_alt. inversion Hsh as [[Hi Hg]]. rewrite Hi.
  split; [apply Hs|]. apply (reads_gshape (b_gws b)); [symmetry; exact Hg|apply Hs].
Qed.

Lemma ids_absorb : forall b sv, ids (b_sv (absorb b sv)) = ids sv.
Proof.
  intros b sv. unfold absorb, ids. cbn [b_sv sv_sessions]. rewrite map_map. apply map_ext. reflexivity.
Qed.

Lemma shape_absorb : forall b sv, shape (absorb b sv) = (ids sv, gshape (b_gws b)).
Proof.
  intros b sv. unfold shape. rewrite ids_absorb. f_equal. unfold absorb. cbn [b_gws].
  apply gshape_map; intros g; destruct (find_session (sv_sessions sv) (g_sid g)); reflexivity.
Qed.

Lemma shape_upd_gw : forall b s (f : gw -> gw),
  (forall g, g_sid (f g) = g_sid g) -> (forall g, g_blocked (f g) = g_blocked g) -> shape (upd_gw b s f) = shape b.
Proof.
  intros b s f Hs Hb. unfold shape, upd_gw. cbn [b_sv b_gws]. f_equal.
  apply gshape_map; intros g; destruct (N.eqb (g_sid g) s); auto.
Qed.

Lemma shape_set_queue : forall b s q, shape (set_queue b s q) = shape b.
Proof. intros b s q. apply shape_upd_gw; reflexivity. Qed.

Lemma shape_flush : forall b, shape (flush b) = shape b.
Proof.
  intros b. unfold shape, flush. cbn [b_sv b_gws]. f_equal. apply gshape_map; intros g; destruct (g_blocked g) eqn:E; cbn; auto.
Qed.

Lemma shape_bpush_spec : forall b, shape (bpush_spec b) = shape b.
Proof. intros b. unfold bpush_spec. rewrite shape_absorb, ids_push_all. reflexivity. Qed.

(* ------------------------------------------------------------------ the supersede variant of SETDATA: same shape *)

Lemma shape_prune_for : forall b s p, shape (prune_for b s p) = shape b.
Proof.
  intros b s p. unfold prune_for. destruct (get_session (b_sv b) s) as [ss|]; [|reflexivity].
  match goal with |- context [match ?x with Some _ => _ | None => _ end] => destruct x end.
  - unfold shape, with_sv. cbn [b_sv b_gws]. rewrite ids_upd_session by (intros; reflexivity). reflexivity.
  - apply shape_set_queue.
Qed.

Lemma shape_bnca_set : forall b s p d sup, shape (bnca_set b s p d sup) = shape b.
Proof.
  intros b s p d sup. unfold bnca_set. cbv zeta. rewrite shape_absorb, ids_node_changed_aux.
  destruct sup; [|reflexivity]. exact (shape_prune_for b s p).
Qed.

Lemma bnode_changed_cases : forall b s p d old sup,
  bnode_changed b s p d old sup = b \/ bnode_changed b s p d old sup = absorb b (node_changed_aux (b_sv b) s p d true) \/
  bnode_changed b s p d old sup = bnca_set b s p d sup.
Proof.
  intros b s p d old sup. unfold bnode_changed. destruct (get_session (b_sv b) s) as [ss|]; [|left; reflexivity].
  cbv zeta. destruct old; repeat outer_if; auto.
Qed.

Lemma shape_bnode_changed : forall b s p d old sup, shape (bnode_changed b s p d old sup) = shape b.
Proof.
  intros b s p d old sup. destruct (bnode_changed_cases b s p d old sup) as [->|[->| ->]];
    [reflexivity|rewrite shape_absorb, ids_node_changed_aux; reflexivity|apply shape_bnca_set].
Qed.

Lemma shape_bnotify_changed : forall b by_ p d old sup, shape (bnotify_changed b by_ p d old sup) = shape b.
Proof.
  intros b by_ p d old sup. unfold bnotify_changed.
  destruct (find_node (sv_tree (b_sv b)) p) as [n|]; [|reflexivity].
  generalize (n_subs n). intros l. revert b. induction l as [|kc l IH]; intros b; cbn [fold_left].
  - reflexivity.
  - rewrite IH. outer_if; [reflexivity|]. apply shape_bnode_changed.
Qed.

Lemma shape_with_sv_tree : forall b t, shape (with_sv b (set_tree (b_sv b) t)) = shape b.
Proof. reflexivity. Qed.

Lemma shape_bset_data_loop : forall cl b by_ pp d dc dov q sup, shape (bset_data_loop b by_ pp cl d dc dov q sup) = shape b.
Proof.
  induction cl as [|k rest IH]; intros b by_ pp d dc dov q sup; cbn [bset_data_loop].
  - reflexivity.
  - cbv zeta. destruct (find_node (sv_tree (b_sv b)) (pp ++ [k])) as [n|].
    + destruct rest as [|k2 rest2].
      * destruct dov; [reflexivity|]. destruct q; [reflexivity|]. rewrite shape_bnotify_changed. reflexivity.
      * apply IH.
    + destruct dc; [reflexivity|]. outer_if; [reflexivity|].
      destruct rest as [|k2 rest2].
      * destruct q; [reflexivity|]. rewrite shape_bnotify_changed. reflexivity.
      * rewrite IH. destruct q; [reflexivity|]. rewrite shape_absorb, ids_notify_changed. reflexivity.
Qed.

(* no command of any session touches who is attached or who reads *)
Lemma shape_bhandle_spec : forall c nest b s, shape (bhandle_spec fx nest b s c) = shape b.
Proof.
  induction c as [c0|flags items|t| |code what|keys|ids0|id keys|l IHl] using bcmd_ind'; intros nest b s;
    cbn [bhandle_spec]; destruct (get_session (b_sv b) s) as [ss|]; try reflexivity;
    try (apply shape_upd_gw; reflexivity).
  - rewrite shape_absorb, ids_handle. reflexivity.
  - revert b. induction items as [|it items IH]; intros b; cbn [fold_left]; [reflexivity|].
    rewrite IH. destruct (get_session (b_sv b) s) as [ss'|]; [|reflexivity].
    destruct (fst it); [reflexivity|apply shape_bset_data_loop].
  - destruct (Nat.ltb nest max_batch_nest); [|reflexivity].
    revert b. induction IHl as [|c' r Hc' _ IHr]; intros b; [reflexivity|].
    rewrite IHr, shape_bpush_spec. apply Hc'.
Qed.

(* one event of ANOTHER client -- any command, any nesting, arriving, leaving, not reading -- and w is still served *)
Lemma serving_step : forall b ev w, ev_sid ev <> w -> serving b w -> serving (bstep_spec fx b ev) w.
Proof.
  intros b ev w Hne Hs. pose proof (proj1 (serving_alt b w) Hs) as [Hin Hr].
  destruct ev as [s host nm|s|s bl|s c]; cbn [ev_sid] in Hne; cbn [bstep_spec].
  - destruct (get_session (b_sv b) s) as [ss|]; [exact (serving_shape b _ w (shape_flush b) Hs)|].
    apply serving_alt. split.
    + unfold flush. cbn [b_sv]. rewrite ids_absorb, ids_new_session. apply in_or_app. left. exact Hin.
    + apply (reads_gshape (b_gws b ++ [mkGw s [] false])); [|apply reads_app; exact Hr].
      symmetry. exact (f_equal snd (eq_trans (shape_flush _) (shape_absorb _ _))).
  - apply serving_alt. split.
    + unfold flush. cbn [b_sv]. rewrite ids_absorb, ids_detach. apply filter_In. split; [exact Hin|].
      destruct (N.eqb w s) eqn:E; [apply N.eqb_eq in E; congruence|reflexivity].
    + apply (reads_gshape (filter (fun g => negb (N.eqb (g_sid g) s)) (b_gws (absorb b (detach fx (b_sv b) s)))));
        [symmetry; exact (f_equal snd (shape_flush _))|].
      apply reads_filter; [exact Hne|]. apply (reads_gshape (b_gws b)); [|exact Hr].
      symmetry. exact (f_equal snd (shape_absorb _ _)).
  - apply serving_alt. split; [exact Hin|].
    apply (reads_gshape (b_gws (upd_gw b s (fun g => mkGw (g_sid g) (g_q g) bl)))); [symmetry; exact (f_equal snd (shape_flush _))|].
    apply reads_upd_gw_other; [exact Hne|reflexivity|exact Hr].
  - apply (serving_shape b); [|exact Hs].
    destruct (get_session (b_sv b) s) as [ss|]; [|apply shape_flush].
    rewrite shape_flush, shape_bpush_spec. apply shape_bhandle_spec.
Qed.

Lemma serving_run : forall evs b w,
  (forall ev, In ev evs -> ev_sid ev <> w) -> serving b w -> serving (brun_spec fx evs b) w.
Proof.
  induction evs as [|ev r IH]; intros b w Hall Hs; unfold brun_spec; cbn [fold_left].
  - exact Hs.
  - apply IH.
    + intros e He. apply Hall. right. exact He.
    + apply serving_step; [apply Hall; left; reflexivity|exact Hs].
Qed.

Lemma flush_delivers : forall b w g,
  find_gw (b_gws b) w = Some g -> g_blocked g = false -> g_q g <> [] -> In (w, g_q g) (b_last (flush b)).
Proof.
  intros b w g Hg Hbl Hq. unfold flush. cbn [b_last].
  apply in_flat_map. exists g. split.
  - clear Hbl Hq. induction (b_gws b) as [|x l IH]; cbn [find_gw] in Hg.
    + discriminate.
    + destruct (N.eqb (g_sid x) w); [inversion Hg; left; reflexivity|right; apply IH; exact Hg].
  - rewrite Hbl. rewrite (find_gw_sid _ _ _ Hg). destruct (g_q g); [congruence|left; reflexivity].
Qed.

Lemma ping_answered : forall b w t, serving b w -> delivered (bstep_spec fx b (BCmd w (BPing t))) w (OPong t).
Proof.
  intros b w t [[ss Hss] [g [Hg Hbl]]]. cbn [bstep_spec]. rewrite Hss. cbn [bhandle_spec]. rewrite Hss.
  pose proof (find_gw_sid _ _ _ Hg) as Hsid.
  (* after the handler: w's queue ends with the PONG *)
  pose proof (find_gw_upd_gw b w (fun g => mkGw (g_sid g) (g_q g ++ [OPong t]) (g_blocked g)) w g (fun _ => eq_refl) Hg) as H1.
  rewrite N.eqb_refl in H1. fold (enqueue b w (OPong t)) in H1.
  (* after PushSubscriptionMessages: possibly more behind it *)
  assert (H2 : exists extra, find_gw (b_gws (bpush_spec (enqueue b w (OPong t)))) w
                            = Some (mkGw (g_sid g) ((g_q g ++ [OPong t]) ++ extra) (g_blocked g))).
  { unfold bpush_spec, absorb. cbn [b_gws]. rewrite find_gw_map.
    - rewrite H1. cbn [option_map g_sid g_q g_blocked].
      destruct (find_session _ (g_sid g)) as [ss1|].
      + eexists. reflexivity.
      + exists []. rewrite app_nil_r. reflexivity.
    - intros x. destruct (find_session _ (g_sid x)); reflexivity. }
  destruct H2 as [extra H2].
  exists ((g_q g ++ [OPong t]) ++ extra). split.
  - apply (flush_delivers _ w _ H2); cbn [g_blocked g_q]; [exact Hbl|].
    destruct (g_q g); discriminate.
  - apply in_or_app. left. apply in_or_app. right. left. reflexivity.
Qed.

(* witness_ping_answered: the property.  For every state in which w is served, every history of events of other
   sessions (hostile or not), w is served afterwards and its ping is answered. *)
Theorem witness_ping_answered : forall (evs : list bevent) (b : bserver) (w : sid) (t : N),
  serving b w -> (forall ev, In ev evs -> ev_sid ev <> w) ->
  serving (brun_spec fx evs b) w /\
  delivered (bstep_spec fx (brun_spec fx evs b) (BCmd w (BPing t))) w (OPong t).
Proof.
  intros evs b w t Hs Hall. split.
  - apply serving_run; assumption.
  - apply ping_answered. apply serving_run; assumption.
Qed.

Lemma ping_after_run : forall (evs : list bevent) (b : bserver) (w : sid) (t : N),
  serving b w -> (forall ev, In ev evs -> ev_sid ev <> w) ->
  delivered (brun_spec fx (evs ++ [BCmd w (BPing t)]) b) w (OPong t).
Proof.
  intros evs b w t Hs Hall. unfold brun_spec. rewrite fold_left_app. apply (witness_ping_answered evs b w t Hs Hall).
Qed.

(* the same on the fuelled semantics: as soon as the fuel exceeds the heaviest queued Message met (and 2), the whole
   history followed by the ping returns, and the PONG is delivered *)
Theorem witness_ping_answered_fuel : forall (fuel : nat) (evs : list bevent) (b : bserver) (w : sid) (t : N),
  serving b w -> (forall ev, In ev evs -> ev_sid ev <> w) ->
  2 <= fuel -> rpeak fx (evs ++ [BCmd w (BPing t)]) b < fuel ->
  exists b', brun fx true fuel (evs ++ [BCmd w (BPing t)]) b = Some b' /\ delivered b' w (OPong t).
Proof.
  intros fuel evs b w t Hs Hall Hf2 Hpk. eexists. split; [apply server_run_total; assumption|apply ping_after_run; assumption].
Qed.

(* ... and for ANY amount of fuel: whenever the run of other clients' events followed by w's ping returns at all, the
   PONG has been delivered to w *)
Theorem witness_ping_answered_any_fuel : forall (fuel : nat) (evs : list bevent) (b b' : bserver) (w : sid) (t : N),
  serving b w -> (forall ev, In ev evs -> ev_sid ev <> w) ->
  brun fx true fuel (evs ++ [BCmd w (BPing t)]) b = Some b' -> delivered b' w (OPong t).
Proof.
  intros fuel evs b b' w t Hs Hall H. rewrite (proj2 (brun_returns fx fuel _ b) b' H). apply ping_after_run; assumption.
Qed.

End Serve.
