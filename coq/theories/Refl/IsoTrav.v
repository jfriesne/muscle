(* Refl/IsoTrav.v -- C06: two rules for EVERY traversal of NodePathMatcher::DoTraversal (Refl/Traverse.v), whatever the
   patterns, filters, callback and repair flags.  One tree: the callback is only ever invoked on nodes of the tree that lie
   strictly below the node the traversal started at (an invariant rule).  Two trees: if they agree below that node up to one
   session's marks (same children in the same order, same payloads) and the callback does not look at subscriber tables, the
   two traversals give the same result. *)
From Coq Require Import List NArith ZArith Bool Arith Lia.
From Muscle Require Import Refl.Base Refl.BaseProofs Refl.Tree Refl.TreeProofs Refl.Matcher Refl.Traverse Refl.IsoBase.
Import ListNotations.

Section TravInv.
Context {M : MatchOps}.
Variable A : Type.
Variable cb : A -> node -> A * Z.
Variable t : tree.
Variable m : matcher.
Variable root_depth : nat.
Variable use_filters guard_fixed : bool.
Variable root : path.
Variable P : A -> Prop.

(* a node the callback may see: in the tree, strictly below [root] *)
Definition below (n : node) : Prop := In n t /\ exists r, r <> [] /\ n_path n = root ++ r.

Hypothesis Hcb : forall acc n, P acc -> below n -> P (fst (cb acc n)).

Definition rec_ok (rec : path -> A -> A * Z) : Prop :=
  forall p acc, is_prefix root p = true -> P acc -> P (fst (rec p acc)).

Lemma check_entries_inv : forall rec child rel known es idx matched recursed acc,
  rec_ok rec -> below child -> P acc ->
  P (fst (check_entries A cb m root_depth use_filters guard_fixed rec child rel known es idx matched recursed acc)).
Proof.
  intros rec child rel known es. induction es as [|e es IH]; intros idx matched recursed acc Hrec Hch HP; cbn; [exact HP|].
  assert (Hpre : is_prefix root (n_path child) = true).
  { destruct Hch as [_ [r [_ Hr]]]. rewrite Hr. apply is_prefix_app. }
  destruct (_ || _).
  - destruct (Nat.eqb _ _).
    + destruct matched; [now apply IH|].
      destruct (_ || _).
      * destruct (cb acc child) as [acc1 nd] eqn:Ecb.
        assert (HP1 : P acc1) by (specialize (Hcb acc child HP Hch); now rewrite Ecb in Hcb).
        destruct (Z.ltb _ _); [exact HP1|]. destruct recursed; [exact HP1|]. now apply IH.
      * now apply IH.
    + destruct recursed; [now apply IH|].
      destruct (rec (n_path child) acc) as [acc1 nd] eqn:Erec.
      assert (HP1 : P acc1) by (specialize (Hrec (n_path child) acc Hpre HP); now rewrite Erec in Hrec).
      destruct (Z.ltb _ _); [exact HP1|]. destruct matched; [exact HP1|]. now apply IH.
  - now apply IH.
Qed.

Lemma check_child_inv : forall rec child rel known acc,
  rec_ok rec -> below child -> P acc ->
  P (fst (check_child A cb m root_depth use_filters guard_fixed rec child rel known acc)).
Proof. intros. unfold check_child. now apply check_entries_inv. Qed.

Lemma iter_children_inv : forall rec rel cs acc,
  rec_ok rec -> (forall c, In c cs -> below c) -> P acc ->
  P (fst (iter_children A cb m root_depth use_filters guard_fixed rec rel cs acc)).
Proof.
  intros rec rel cs. induction cs as [|c cs IH]; intros acc Hrec Hcs HP; cbn; [exact HP|].
  destruct (check_child A cb m root_depth use_filters guard_fixed rec c rel None acc) as [acc1 [d|]] eqn:E.
  - pose proof (check_child_inv rec c rel None acc Hrec (Hcs c (or_introl eq_refl)) HP) as H. now rewrite E in H.
  - apply IH; [exact Hrec|intros c' Hc'; apply Hcs; now right|].
    pose proof (check_child_inv rec c rel None acc Hrec (Hcs c (or_introl eq_refl)) HP) as H. now rewrite E in H.
Qed.

Lemma lookup_keys_inv : forall rec x rel idx ks did acc,
  rec_ok rec -> is_prefix root x = true -> P acc ->
  P (fst (fst (lookup_keys A cb t m root_depth use_filters guard_fixed rec x rel idx ks did acc))).
Proof.
  intros rec x rel idx ks. induction ks as [|k ks IH]; intros did acc Hrec Hx HP; cbn; [exact HP|].
  destruct (get_child t x k) as [c|] eqn:Eg; [|now apply IH].
  destruct (path_mem (n_path c) did); [now apply IH|].
  assert (Hb : below c).
  { apply get_child_In in Eg as [Hin Hp]. split; [exact Hin|]. apply is_prefix_spec in Hx as [r Hr].
    exists (r ++ [k]). split; [destruct r; discriminate|]. rewrite Hp, Hr. now rewrite app_assoc. }
  destruct (check_child A cb m root_depth use_filters guard_fixed rec c rel (Some idx) acc) as [acc1 [d|]] eqn:E;
    pose proof (check_child_inv rec c rel (Some idx) acc Hrec Hb HP) as H; rewrite E in H; cbn in H.
  - exact H.
  - now apply IH.
Qed.

Lemma lookup_entries_inv : forall rec x rel es idx did acc,
  rec_ok rec -> is_prefix root x = true -> P acc ->
  P (fst (lookup_entries A cb t m root_depth use_filters guard_fixed rec x rel es idx did acc)).
Proof.
  intros rec x rel es. induction es as [|e es IH]; intros idx did acc Hrec Hx HP; cbn; [exact HP|].
  match goal with |- context [lookup_keys A cb t m root_depth use_filters guard_fixed rec x rel idx ?ks did acc] =>
    pose proof (lookup_keys_inv rec x rel idx ks did acc Hrec Hx HP) as H;
    destruct (lookup_keys A cb t m root_depth use_filters guard_fixed rec x rel idx ks did acc) as [[acc1 did1] [d|]] end;
    cbn in H.
  - exact H.
  - now apply IH.
Qed.

Lemma trav_inv : forall fuel, rec_ok (trav A cb t m root_depth use_filters guard_fixed fuel).
Proof.
  induction fuel as [|f IH]; intros x acc Hx HP; cbn; [exact HP|].
  destruct (existsb _ _).
  - match goal with |- context [iter_children A cb m root_depth use_filters guard_fixed ?r ?rel ?cs acc] =>
      assert (H : P (fst (iter_children A cb m root_depth use_filters guard_fixed r rel cs acc))) end.
    { apply iter_children_inv; [exact IH| |exact HP].
      intros c Hc. apply children_in in Hc as [Hin [k Hk]]. split; [exact Hin|].
      apply is_prefix_spec in Hx as [r Hr]. exists (r ++ [k]). split; [destruct r; discriminate|].
      rewrite Hk, Hr. now rewrite app_assoc. }
    destruct (iter_children _ _ _ _ _ _ _ _ _ _) as [acc1 [d|]]; exact H.
  - match goal with |- context [lookup_entries A cb t m root_depth use_filters guard_fixed ?r x ?rel ?es 0 [] acc] =>
      pose proof (lookup_entries_inv r x rel es 0 [] acc IH Hx HP) as H;
      destruct (lookup_entries A cb t m root_depth use_filters guard_fixed r x rel es 0 [] acc) as [acc1 [d|]] end; exact H.
Qed.

End TravInv.

(* the rule for DoTraversal: any property of the accumulator that every callback on a node of the tree strictly below
   [root] preserves, is preserved by the whole traversal *)
Lemma do_traversal_inv : forall {M : MatchOps} (A : Type) (cb : A -> node -> A * Z) t m root uf gf (P : A -> Prop),
  (forall acc n, P acc -> In n t -> (exists r, r <> [] /\ n_path n = root ++ r) -> P (fst (cb acc n))) ->
  forall acc, P acc -> P (do_traversal cb t m root uf gf acc).
Proof.
  intros M A cb t m root uf gf P Hcb acc HP. unfold do_traversal.
  apply (trav_inv A cb t m (length root) uf gf root P).
  - intros a n Ha [Hin Hr]. now apply Hcb.
  - apply is_prefix_refl.
  - exact HP.
Qed.

Section TravTwo.
Context {M : MatchOps}.
Variable A : Type.
Variable cb : A -> node -> A * Z.
Variable tF tE : tree.
Variable m : matcher.
Variable root_depth : nat.
Variable use_filters guard_fixed : bool.
Variable root : path.
Variable s : sid.

Hypothesis Hcb : forall acc n, cb acc (strip s n) = cb acc n.
Hypothesis Hkids : forall x, is_prefix root x = true -> children tE x = map (strip s) (children tF x).
Hypothesis Hget : forall x k, is_prefix root x = true -> get_child tE x k = option_map (strip s) (get_child tF x k).

Definition rec_same (recE recF : path -> A -> A * Z) : Prop :=
  forall p acc, is_prefix root p = true -> recE p acc = recF p acc.

Lemma check_entries_two : forall recE recF child rel known es idx matched recursed acc,
  rec_same recE recF -> is_prefix root (n_path child) = true ->
  check_entries A cb m root_depth use_filters guard_fixed recE (strip s child) rel known es idx matched recursed acc =
  check_entries A cb m root_depth use_filters guard_fixed recF child rel known es idx matched recursed acc.
Proof.
  intros recE recF child rel known es. induction es as [|e es IH]; intros idx matched recursed acc Hrec Hp; cbn; [reflexivity|].
  unfold depth; cbn [n_path n_data strip].
  destruct (_ || _); [|now apply IH].
  destruct (Nat.eqb _ _).
  - destruct matched; [now apply IH|].
    destruct (_ || _); [|now apply IH].
    rewrite Hcb. destruct (cb acc child) as [acc1 nd]. destruct (Z.ltb _ _); [reflexivity|]. destruct recursed; [reflexivity|]. now apply IH.
  - destruct recursed; [now apply IH|].
    rewrite (Hrec (n_path child) acc Hp). destruct (recF (n_path child) acc) as [acc1 nd].
    destruct (Z.ltb _ _); [reflexivity|]. destruct matched; [reflexivity|]. now apply IH.
Qed.

Lemma iter_children_two : forall recE recF rel cs acc,
  rec_same recE recF -> (forall c, In c cs -> is_prefix root (n_path c) = true) ->
  iter_children A cb m root_depth use_filters guard_fixed recE rel (map (strip s) cs) acc =
  iter_children A cb m root_depth use_filters guard_fixed recF rel cs acc.
Proof.
  intros recE recF rel cs. induction cs as [|c cs IH]; intros acc Hrec Hcs; cbn; [reflexivity|].
  unfold check_child. rewrite (check_entries_two recE recF c rel None (active m rel) 0 false false acc Hrec (Hcs c (or_introl eq_refl))).
  destruct (check_entries A cb m root_depth use_filters guard_fixed recF c rel None (active m rel) 0 false false acc) as [acc1 [d|]]; [reflexivity|].
  apply IH; [exact Hrec|]. intros c' Hc'. apply Hcs. now right.
Qed.

Lemma lookup_keys_two : forall recE recF x rel idx ks did acc,
  rec_same recE recF -> is_prefix root x = true ->
  lookup_keys A cb tE m root_depth use_filters guard_fixed recE x rel idx ks did acc =
  lookup_keys A cb tF m root_depth use_filters guard_fixed recF x rel idx ks did acc.
Proof.
  intros recE recF x rel idx ks. induction ks as [|k ks IH]; intros did acc Hrec Hx; cbn; [reflexivity|].
  rewrite (Hget x k Hx). destruct (get_child tF x k) as [c|] eqn:Eg; cbn [option_map]; [|now apply IH].
  change (n_path (strip s c)) with (n_path c). destruct (path_mem (n_path c) did); [now apply IH|].
  assert (Hc : is_prefix root (n_path c) = true).
  { unfold get_child in Eg. apply find_node_some in Eg as [_ Hp]. rewrite Hp. now apply is_prefix_snoc. }
  unfold check_child. rewrite (check_entries_two recE recF c rel (Some idx) (active m rel) 0 false false acc Hrec Hc).
  destruct (check_entries A cb m root_depth use_filters guard_fixed recF c rel (Some idx) (active m rel) 0 false false acc) as [acc1 [d|]]; [reflexivity|].
  now apply IH.
Qed.

Lemma lookup_entries_two : forall recE recF x rel es idx did acc,
  rec_same recE recF -> is_prefix root x = true ->
  lookup_entries A cb tE m root_depth use_filters guard_fixed recE x rel es idx did acc =
  lookup_entries A cb tF m root_depth use_filters guard_fixed recF x rel es idx did acc.
Proof.
  intros recE recF x rel es. induction es as [|e es IH]; intros idx did acc Hrec Hx; cbn; [reflexivity|].
  rewrite (lookup_keys_two recE recF x rel idx _ did acc Hrec Hx).
  destruct (lookup_keys A cb tF m root_depth use_filters guard_fixed recF x rel idx _ did acc) as [[acc1 did1] [d|]]; [reflexivity|].
  now apply IH.
Qed.

Lemma trav_two : forall fuel,
  rec_same (trav A cb tE m root_depth use_filters guard_fixed fuel) (trav A cb tF m root_depth use_filters guard_fixed fuel).
Proof.
  induction fuel as [|f IH]; intros x acc Hx; cbn; [reflexivity|].
  destruct (existsb _ _).
  - rewrite (Hkids x Hx). rewrite (iter_children_two _ _ _ _ acc IH); [reflexivity|].
    intros c Hc. apply children_in in Hc as [_ [k Hk]]. rewrite Hk. now apply is_prefix_snoc.
  - now rewrite (lookup_entries_two _ _ x _ _ 0 [] acc IH Hx).
Qed.

End TravTwo.

Lemma do_traversal_two : forall {M : MatchOps} (A : Type) (cb : A -> node -> A * Z) tF tE m root uf gf s acc,
  (forall acc n, cb acc (strip s n) = cb acc n) ->
  (forall x, is_prefix root x = true -> children tE x = map (strip s) (children tF x)) ->
  (forall x k, is_prefix root x = true -> get_child tE x k = option_map (strip s) (get_child tF x k)) ->
  do_traversal cb tE m root uf gf acc = do_traversal cb tF m root uf gf acc.
Proof.
  intros M A cb tF tE m root uf gf s acc Hcb Hk Hg. unfold do_traversal. f_equal.
  apply (trav_two A cb tF tE m (length root) uf gf root s Hcb Hk Hg). apply is_prefix_refl.
Qed.
