(* Refl/BoundedRefuted.v -- C07, finding F4: with the code as it was found (RemoveData(nextFieldName, i): the QUEUE
   index where the item index j is meant) the handler of PR_COMMAND_JETTISONRESULTS does not return.  The witness is a
   reachable state: two clients; client 0 owns two nodes; client 1 stops reading, asks for both nodes (two replies
   queue up) and then sends JETTISONRESULTS with a filter.  The same history through the repaired loop returns (and
   empties the queue), which is also the non-vacuity example of the fuel theorems.
   The history was replayed on the real server (harness/bounded_h.cpp, corpus line "F4"): ServerProcessLoop never
   returned before /repo commit 0caa6b8. *)
From Coq Require Import List NArith ZArith Bool Arith Lia.
From Muscle Require Import Refl.Base Refl.Matcher Refl.Session Refl.Server Refl.Bounded Refl.BoundedSpec
  Refl.BoundedProofs Refl.BoundedCost.
Import ListNotations.
Local Open Scope N_scope.

(* a small concrete world of patterns: clause 0 is "*", clause k > 0 is the literal name k; one filter, accepting everything *)
Definition tiny_ops : MatchOps :=
  {| clause := N;
     clause_eqb := N.eqb;
     cmatch := fun c n => N.eqb c 0 || N.eqb c n;
     ckeys := fun c => if N.eqb c 0 then None else Some [c];
     cstar := 0;
     qfilter := unit;
     fmatch := fun _ _ => true |}.

Section Witness.
Existing Instance tiny_ops.

Definition host : name := 9.
Definition na : name := 1.
Definition nb : name := 2.

Definition w_keys : list (spath * option qfilter) := [(Rel [na], Some tt); (Rel [nb], Some tt)].

Definition w_evs : list bevent :=
  [ BAttach 0 host 10; BAttach 1 host 11;
    BCmd 0 (BBase (CSetData 0 [([na], 5); ([nb], 6)]));
    BBlock 1 true;
    BCmd 1 (BBase (CGetData [(Rel [na], None)]));
    BCmd 1 (BBase (CGetData [(Rel [nb], None)])) ].

Definition w_cmd : bcmd := BJettResults (Some w_keys).

Definition w_state : bserver := brun_spec all_fixed w_evs empty_bserver.

Definition w_matcher : matcher := m_of_list (map (fun kf => (fix_path (fst kf), snd kf)) w_keys).

Lemma w_reachable : forall fuel, (2 <= fuel)%nat -> brun all_fixed true fuel w_evs empty_bserver = Some w_state.
Proof.
  intros fuel Hf. apply server_run_total; [exact Hf|].
  assert (Hp : rpeak all_fixed w_evs empty_bserver = 0%nat) by (vm_compute; reflexivity).
  rewrite Hp. lia.
Qed.

Lemma w_queue : queue_of w_state 1 =
  [ODataItems (mkDI [] [([host; 10; na], [5])]); ODataItems (mkDI [] [([host; 10; nb], [6])])].
Proof. vm_compute. reflexivity. Qed.

Lemma w_session : exists ss, get_session (b_sv w_state) 1 = Some ss.
Proof. vm_compute. eexists. reflexivity. Qed.

(* as found: the jettison pass over this queue is out of fuel for every fuel *)
Lemma w_jettison_hangs : forall fuel, jettison_results false (Some w_matcher) fuel (queue_of w_state 1) = None.
Proof.
  intros fuel. rewrite w_queue. unfold jettison_results. cbn [length jett_queue nth_error].
  unfold jett_msg. cbn [di_removed di_sets].
  destruct fuel as [|f]; [reflexivity|].
  cbn [jett_removed nth_error jett_fields].
  assert (Hnf : N.ltb 0 (m_nfilters w_matcher) = true) by (vm_compute; reflexivity).
  rewrite Hnf.
  rewrite (jett_items_stuck w_matcher 1 [host; 10; nb] [6] 0 6); reflexivity.
Qed.

Lemma w_step_hangs : forall fuel, bstep all_fixed false fuel w_state (BCmd 1 w_cmd) = None.
Proof.
  intros fuel. destruct w_session as [ss Hs]. unfold w_cmd. cbn [bstep bhandle]. rewrite Hs.
  fold w_matcher. rewrite w_jettison_hangs. reflexivity.
Qed.

(* repaired: the same step returns, and the queue of the non-reading client is empty afterwards *)
Lemma w_step_returns : forall fuel, (2 <= fuel)%nat ->
  exists b', bstep all_fixed true fuel w_state (BCmd 1 w_cmd) = Some b' /\ queue_of b' 1 = [].
Proof.
  intros fuel Hf. exists (bstep_spec all_fixed w_state (BCmd 1 w_cmd)). split.
  - apply server_step_total; [exact Hf|].
    assert (Hp : speak all_fixed w_state (BCmd 1 w_cmd) = 1%nat) by (vm_compute; reflexivity).
    rewrite Hp. lia.
  - vm_compute. reflexivity.
Qed.

(* in that state the witness (session 0) is attached and reading while session 1 is attached and NOT reading *)
Lemma w_serving : serving w_state 0 /\ ~ serving w_state 1.
Proof.
  split.
  - split; [vm_compute; eexists; reflexivity|]. vm_compute. eexists. split; reflexivity.
  - intros [_ [g [Hg Hb]]]. vm_compute in Hg. inversion Hg; subst. discriminate.
Qed.

(* ... and it has distinct session ids and distinct node paths (the premise of the polynomial fuel bound) *)
Lemma w_good : good_sv (b_sv w_state).
Proof.
  split; vm_compute; repeat (constructor; [cbn; intuition discriminate|]); constructor.
Qed.

End Witness.

(* jettison_refuted: there is a reachable state and a structurally valid Message on which the handler, as found, never returns *)
Lemma jettison_refuted :
  exists (ops : MatchOps) (evs : list bevent) (b : bserver) (s : sid) (c : bcmd),
    (forall fuel, (2 <= fuel)%nat -> @brun ops all_fixed true fuel evs empty_bserver = Some b) /\
    (forall fuel, @bstep ops all_fixed false fuel b (BCmd s c) = None).
Proof.
  exists tiny_ops, w_evs, w_state, 1, w_cmd. split.
  - exact w_reachable.
  - exact w_step_hangs.
Qed.
