(* Refl/MirrorFrame.v -- bookkeeping facts about whole commands that hold for every session: pending Messages
   stay well formed, node commands leave all subscriptions alone, and a session's subscription table follows
   its own SUBSCRIBE / unsubscribe commands exactly as the client-side record (Mirror.client_cmd) does. *)
From Coq Require Import List NArith ZArith Bool Arith Lia.
From Muscle Require Import Refl.Base Refl.BaseProofs Refl.Matcher Refl.Session Refl.Server Refl.ServerProofs
     Refl.Mirror Refl.MirrorServer Refl.MirrorSteps Refl.MirrorHandlers.
Import ListNotations.

Section Frame.
Context {M : MatchOps} {L : MatchLaws M}.
Variable fx : fixes.
Variable mir : mirror.

(* what the lemmas below say about every session o of the state before *)
Definition tracks (sv sv' : server) (b : sid) (upd : matcher -> matcher) : Prop :=
  forall o ss, get_session sv o = Some ss ->
  exists ss', get_session sv' o = Some ss' /\ session_dir ss' = session_dir ss
              /\ s_subs ss' = (if N.eqb b o then upd (s_subs ss) else s_subs ss).

Lemma tracks_sess : forall sv sv' b, same_sess sv sv' -> tracks sv sv' b (fun m => m).
Proof.
  intros sv sv' b Hs o ss Hss. destruct (get_session_sess_fwd sv sv' o ss Hs Hss) as [ss' [H1 [H2 H3]]].
  exists ss'. split; [auto|split; [auto|]]. now destruct (N.eqb b o).
Qed.

Lemma tracks_trans : forall a b c s f g, tracks a b s f -> tracks b c s g -> tracks a c s (fun m => g (f m)).
Proof.
  intros a b c s f g H1 H2 o ss Hss. destruct (H1 o ss Hss) as [ss1 [Ha [Hb Hc]]].
  destruct (H2 o ss1 Ha) as [ss2 [Hd [He Hf]]]. exists ss2. split; [auto|split; [congruence|]].
  rewrite Hf, Hc. now destruct (N.eqb s o).
Qed.

Lemma tracks_then_sess : forall a b c s f, tracks a b s f -> same_sess b c -> tracks a c s f.
Proof. intros a b c s f H Hs. exact (tracks_trans a b c s f (fun m => m) H (tracks_sess b c s Hs)). Qed.

Lemma tracks_ext : forall a b s f g, (forall m, f m = g m) -> tracks a b s f -> tracks a b s g.
Proof.
  intros a b s f g H H1 o ss Hss. destruct (H1 o ss Hss) as [ss1 [Ha [Hb Hc]]]. exists ss1.
  split; [auto|split; [auto|]]. rewrite Hc. destruct (N.eqb s o); auto.
Qed.

Lemma m_set_filter_put : forall m p f e, m_get m p = Some e -> p <> [] -> m_set_filter m p f = m_put m p f.
Proof.
  intros m p f e H Hp. unfold m_set_filter, m_put. rewrite H. destruct p; [congruence|reflexivity].
Qed.

Lemma tracks_upd : forall sv b f, (forall x, s_id (f x) = s_id x /\ session_dir (f x) = session_dir x) ->
  NoDup (map s_id (sv_sessions sv)) ->
  forall g, (forall x, s_subs (f x) = g (s_subs x)) -> tracks sv (upd_session sv b f) b g.
Proof.
  intros sv b f Hf Hnd g Hg o ss Hss. rewrite get_session_upd by (intros x; apply Hf).
  destruct (N.eqb b o) eqn:E.
  - rewrite Hss. cbn [option_map]. exists (f ss). split; [auto|split; [apply Hf|apply Hg]].
  - exists ss. auto.
Qed.

Lemma subscribe_one_track : forall sv b sf,
  tracks sv (subscribe_one fx sv b sf) b (fun m => m_put m (fix_path (fst sf)) (snd sf)).
Proof.
  intros sv b [sp f]. unfold subscribe_one. cbn [fst snd].
  destruct (get_session sv b) as [bs|] eqn:Hbs.
  - destruct (fix_path sp) as [|c fp'] eqn:Efp.
    + apply (tracks_ext sv sv b (fun m => m)); [intros m; reflexivity|]. apply tracks_sess. reflexivity.
    + rewrite <- Efp. assert (Hne : fix_path sp <> []) by (rewrite Efp; discriminate).
      destruct (m_get (s_subs bs) (fix_path sp)) as [e|] eqn:Hget.
      * match goal with |- tracks sv (upd_session ?X b _) b _ => set (svt := X) end.
        assert (Hct : same_core sv svt).
        { unfold svt. destruct f, (e_flt e); try apply cqf_traversal_core. apply same_core_refl. }
        intros o ss Hss.
        destruct (get_session_sess_fwd sv svt o ss (same_core_sess _ _ Hct) Hss) as [sst [Hsst [Hsubt Hdirt]]].
        rewrite get_session_upd by reflexivity. rewrite Hsst.
        destruct (N.eqb b o) eqn:E.
        -- cbn [option_map]. eexists. split; [reflexivity|split; [exact Hdirt|]]. cbn [set_subs s_subs]. rewrite Hsubt.
           apply N.eqb_eq in E. subst o. assert (ss = bs) by congruence. subst ss.
           now apply (m_set_filter_put _ _ _ e).
        -- exists sst. auto.
      * intros o ss Hss.
        change (get_session (set_tree (upd_session sv b (fun x => set_subs x (m_put (s_subs x) (fix_path sp) f))) _) o)
          with (get_session (upd_session sv b (fun x => set_subs x (m_put (s_subs x) (fix_path sp) f))) o).
        rewrite get_session_upd by reflexivity. rewrite Hss.
        destruct (N.eqb b o); cbn [option_map]; eexists; split; try reflexivity; split; reflexivity.
  - intros o ss Hss. exists ss. split; [auto|split; [auto|]].
    destruct (N.eqb b o) eqn:E; auto. apply N.eqb_eq in E. subst o. congruence.
Qed.

Lemma unsubscribe_one_track : forall sv b sp,
  tracks sv (unsubscribe_one fx sv b sp) b
         (fun m => match m_remove m (fix_path sp) with Some m' => m' | None => m end).
Proof.
  intros sv b sp. unfold unsubscribe_one.
  destruct (get_session sv b) as [bs|] eqn:Hbs.
  - destruct (m_remove (s_subs bs) (fix_path sp)) as [m'|] eqn:Hrm.
    + intros o ss Hss.
      change (get_session (set_tree (upd_session sv b (fun x => set_subs x m')) _) o)
        with (get_session (upd_session sv b (fun x => set_subs x m')) o).
      rewrite get_session_upd by reflexivity. rewrite Hss.
      destruct (N.eqb b o) eqn:E; cbn [option_map]; eexists; split; try reflexivity; split; try reflexivity.
      apply N.eqb_eq in E. subst o. assert (ss = bs) by congruence. subst ss. cbn [set_subs s_subs]. now rewrite Hrm.
    + intros o ss Hss. exists ss. split; [auto|split; [auto|]].
      destruct (N.eqb b o) eqn:E; auto. apply N.eqb_eq in E. subst o. assert (ss = bs) by congruence. subst ss. now rewrite Hrm.
  - intros o ss Hss. exists ss. split; [auto|split; [auto|]].
    destruct (N.eqb b o) eqn:E; auto. apply N.eqb_eq in E. subst o. congruence.
Qed.

(* nesting depth of PR_COMMAND_BATCH inside a command *)
Fixpoint cmd_depth (c : cmd) : nat :=
  match c with
  | CBatch l => S ((fix mx (l : list cmd) : nat := match l with [] => 0 | c' :: r => Nat.max (cmd_depth c') (mx r) end) l)
  | _ => 0
  end.

Lemma subscribe_fold_track : forall subs sv b, pend_ok sv ->
  let sv' := fold_left (fun sv' sf => subscribe_one fx sv' b sf) subs sv in
  pend_ok sv' /\ tracks sv sv' b (fun m => fold_left (fun m' sf => m_put m' (fix_path (fst sf)) (snd sf)) subs m).
Proof.
  induction subs as [|sf subs IH]; intros sv b Hpo; cbn [fold_left].
  - split; [auto|apply tracks_sess; reflexivity].
  - destruct (IH (subscribe_one fx sv b sf) b) as [H1 H2]; [now apply pend_ok_subscribe_one|].
    split; [exact H1|].
    apply (tracks_trans sv (subscribe_one fx sv b sf) _ b _ _ (subscribe_one_track sv b sf) H2).
Qed.

Lemma unsubscribe_fold_track : forall subs sv b, pend_ok sv ->
  let sv' := fold_left (fun sv' sp => unsubscribe_one fx sv' b sp) subs sv in
  pend_ok sv' /\ tracks sv sv' b (fun m => fold_left (fun m' sp => match m_remove m' (fix_path sp) with Some m'' => m'' | None => m' end) subs m).
Proof.
  induction subs as [|sp subs IH]; intros sv b Hpo; cbn [fold_left].
  - split; [auto|apply tracks_sess; reflexivity].
  - destruct (IH (unsubscribe_one fx sv b sp) b) as [H1 H2]; [now apply pend_ok_unsubscribe_one|].
    split; [exact H1|]. apply (tracks_trans sv (unsubscribe_one fx sv b sp) _ b _ _ (unsubscribe_one_track sv b sp) H2).
Qed.

Lemma client_batch_fst : forall l m u,
  fst ((fix go (l : list cmd) (acc : matcher * bool) : matcher * bool :=
          match l with
          | [] => acc
          | c' :: r => let '(m1, u1) := client_cmd (fst acc) c' in go r (m1, snd acc || u1)
          end) l (m, u))
  = fold_left (fun m' c' => fst (client_cmd m' c')) l m.
Proof.
  induction l as [|c l IH]; intros m u; cbn [fold_left]; auto.
  cbn [fst snd]. destruct (client_cmd m c) as [m1 u1] eqn:E. rewrite IH. cbn [fst]. reflexivity.
Qed.

Lemma tracks_none : forall sv b f, get_session sv b = None -> tracks sv sv b f.
Proof.
  intros sv b f H o ss Hss. exists ss. split; [auto|split; [auto|]].
  destruct (N.eqb b o) eqn:E; auto. apply N.eqb_eq in E. subst o. congruence.
Qed.

Lemma handle_track : forall c nest sv b, pend_ok sv -> nest + cmd_depth c <= max_batch_nest ->
  pend_ok (handle fx nest sv b c) /\ tracks sv (handle fx nest sv b c) b (fun m => fst (client_cmd m c)).
Proof.
  induction c using cmd_ind'; intros nest sv b Hpo Hdepth; cbn [handle client_cmd fst];
    destruct (get_session sv b) as [bs|] eqn:Hbs; try (split; [exact Hpo|now apply tracks_none]).
  - (* CSetData *) pose proof (set_data_items_nf i sv b bs f Hbs) as F. split; [exact (nf_pend F Hpo)|exact (tracks_sess _ _ b (nf_sess F))].
  - (* CRemoveData *) pose proof (do_remove_data_nf fx sv bs k q) as F. split; [exact (nf_pend F Hpo)|exact (tracks_sess _ _ b (nf_sess F))].
  - (* CSubscribe *) destruct (subscribe_fold_track k sv b Hpo) as [H1 H2].
    set (sv1 := fold_left (fun sv' sf => subscribe_one fx sv' b sf) k sv) in *.
    assert (Hg : forall svx, pend_ok svx -> same_core sv1 svx ->
              pend_ok svx /\ tracks sv svx b (fun m => fold_left (fun m' sf => m_put m' (fix_path (fst sf)) (snd sf)) k m)).
    { intros svx Hpx Hcx. split; [auto|]. exact (tracks_then_sess _ _ _ _ _ H2 (same_core_sess _ _ Hcx)). }
    destruct q; [apply Hg; [auto|apply same_core_refl]|].
    destruct k as [|sf0 k0] eqn:Ek; [apply Hg; [auto|apply same_core_refl]|]. rewrite <- Ek in *.
    apply Hg.
    + apply pend_ok_do_get_data. destruct (fx_push fx); [now apply pend_ok_push_all|auto].
    + eapply same_core_trans; [|apply do_get_data_core]. destruct (fx_push fx); [apply push_all_core|apply same_core_refl].
  - (* CUnsubscribe *) now apply unsubscribe_fold_track.
  - (* CSetMax *) split; [apply pend_ok_upd_keep; [reflexivity|auto]|].
    apply tracks_sess. apply same_core_sess. apply upd_session_core. reflexivity.
  - (* CResetMax *) split; [apply pend_ok_upd_keep; [reflexivity|auto]|].
    apply tracks_sess. apply same_core_sess. apply upd_session_core. reflexivity.
  - (* CGetData *) split; [now apply pend_ok_do_get_data|]. apply tracks_sess. apply same_core_sess. apply do_get_data_core.
  - (* CBatch *)
    cbn [cmd_depth] in Hdepth.
    assert (Hlt : Nat.ltb nest max_batch_nest = true) by (apply Nat.ltb_lt; lia). rewrite Hlt.
    match goal with |- _ /\ tracks sv ?X b _ =>
      cut (pend_ok X /\ tracks sv X b (fun m => fold_left (fun m' c' => fst (client_cmd m' c')) l m)) end.
    { intros [Ha Hb]. split; [exact Ha|]. apply (tracks_ext _ _ _ _ _ (fun m => eq_sym (client_batch_fst l m false)) Hb). }
    clear Hbs bs Hlt. revert sv Hpo Hdepth.
    induction H as [|c l Hc Hl IHl]; intros sv Hpo Hdepth.
    + split; [auto|apply tracks_sess; reflexivity].
    + cbn [fold_left].
      destruct (Hc (S nest) sv b Hpo) as [H1 H2]; [lia|].
      set (sv1 := push_all (handle fx (S nest) sv b c)).
      assert (Hpo1 : pend_ok sv1) by (now apply pend_ok_push_all).
      destruct (IHl sv1 Hpo1) as [H3 H4]; [lia|].
      split; [exact H3|].
      exact (tracks_trans sv sv1 _ b _ _ (tracks_then_sess _ _ _ _ _ H2 (same_core_sess _ _ (push_all_core _))) H4).
Qed.

End Frame.
