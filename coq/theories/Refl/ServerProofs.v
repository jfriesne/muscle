(* Refl/ServerProofs.v -- the state invariant of the server model and its preservation by every handler.
   Its field [inv_marks] is the property refcount_inv of C04: every node's subscriber table holds, for every session,
   the number of that session's subscription paths that match the node.  The notions the C04 / C06 statements are
   written in ([inv_x], [small], [cmd_budget], [wf_event], [wf_run], [run_budget]) are defined here. *)
From Coq Require Import List NArith ZArith Bool Arith Lia.
From Muscle Require Import Refl.Base Refl.BaseProofs Refl.Tree Refl.TreeProofs Refl.Matcher Refl.MatcherProofs
     Refl.Traverse Refl.TraverseFold Refl.TraverseSpec Refl.Session Refl.Server.
Import ListNotations.

Section ServerProofs.
Context {M : MatchOps} {L : MatchLaws M}.
Variable fx : fixes.
Hypothesis guard_on : fx_guard fx = true.

(* ------------------------------------------------------------------ what notifications leave alone *)

(* the part of a session the tree invariants depend on *)
Definition core (ss : session) : sid * name * name * matcher :=
  (s_id ss, s_host ss, s_name ss, s_subs ss).

Definition same_core (sv sv' : server) : Prop :=
  sv_tree sv' = sv_tree sv /\ map core (sv_sessions sv') = map core (sv_sessions sv).

Lemma same_core_refl : forall sv, same_core sv sv.
Proof. intros; split; reflexivity. Qed.

Lemma same_core_trans : forall a b c, same_core a b -> same_core b c -> same_core a c.
Proof. intros a b c [H1 H2] [H3 H4]. split; congruence. Qed.

Lemma upd_session_core : forall sv s f, (forall x, core (f x) = core x) -> same_core sv (upd_session sv s f).
Proof.
  intros sv s f Hf. split; [reflexivity|]. cbn. rewrite map_map. apply map_ext.
  intros x. destruct (N.eqb (s_id x) s); auto.
Qed.

Lemma set_dirty_core : forall sv b, same_core sv (set_dirty sv b).
Proof. intros; split; reflexivity. Qed.

Lemma push_all_core : forall sv, same_core sv (push_all sv).
Proof.
  intros sv. unfold push_all. destruct (sv_dirty sv); [|apply same_core_refl].
  split; [reflexivity|]. cbn. rewrite map_map. apply map_ext. intros x.
  unfold push_pending. destruct (s_pending x); reflexivity.
Qed.

Lemma node_changed_aux_core : forall sv s p d r, same_core sv (node_changed_aux sv s p d r).
Proof.
  intros sv s p d r. unfold node_changed_aux. destruct (get_session sv s) as [ss|]; [|apply same_core_refl].
  cbv zeta.
  match goal with |- same_core sv (match get_session ?X s with _ => _ end) => set (sv1 := X) end.
  assert (H1 : same_core sv sv1).
  { unfold sv1. destruct r.
    - destruct (di_has_set (pending_or_new ss) p).
      + eapply same_core_trans; [|apply set_dirty_core].
        eapply same_core_trans; [|apply upd_session_core; reflexivity].
        eapply same_core_trans; [|apply push_all_core].
        eapply same_core_trans; [|apply set_dirty_core].
        apply upd_session_core; reflexivity.
      + eapply same_core_trans; [|apply set_dirty_core]. apply upd_session_core; reflexivity.
    - eapply same_core_trans; [|apply set_dirty_core]. apply upd_session_core; reflexivity. }
  destruct (get_session sv1 s) as [ss1|]; auto.
  destruct (s_pending ss1) as [pd|]; auto.
  destruct (N.leb (s_max ss1) (di_num_names pd)); auto.
  eapply same_core_trans; [exact H1|apply push_all_core].
Qed.

Lemma node_changed_core : forall sv s p d old r, same_core sv (node_changed sv s p d old r).
Proof.
  intros sv s p d old r. unfold node_changed. destruct (get_session sv s) as [ss|]; [|apply same_core_refl].
  destruct (N.ltb 0 (m_nfilters (s_subs ss))).
  - destruct r.
    + destruct (matches_node _ _ _ _); [apply node_changed_aux_core|apply same_core_refl].
    + destruct old.
      * destruct (matches_node (s_subs ss) p (Some d) 0); [apply node_changed_aux_core|].
        destruct (matches_node _ _ _ _); [apply node_changed_aux_core|apply same_core_refl].
      * destruct (matches_node (s_subs ss) p (Some d) 0); [apply node_changed_aux_core|apply same_core_refl].
  - apply node_changed_aux_core.
Qed.

Lemma fold_same_core : forall (B : Type) (f : server -> B -> server) l sv,
  (forall sv' b, same_core sv' (f sv' b)) -> same_core sv (fold_left f l sv).
Proof.
  intros B f. induction l as [|b l IH]; intros sv H; cbn; [apply same_core_refl|].
  eapply same_core_trans; [apply H|]. now apply IH.
Qed.

Lemma notify_changed_core : forall sv by_ p d old r, same_core sv (notify_changed sv by_ p d old r).
Proof.
  intros sv by_ p d old r. unfold notify_changed. destruct (find_node (sv_tree sv) p); [|apply same_core_refl].
  apply fold_same_core. intros sv' kc. destruct (N.eqb (fst kc) by_); [apply same_core_refl|apply node_changed_core].
Qed.

(* sessions are found by id: same cores, same answers *)
Lemma find_session_core : forall l l' s, map core l' = map core l ->
  match find_session l s, find_session l' s with
  | Some a, Some b => core b = core a
  | None, None => True
  | _, _ => False
  end.
Proof.
  induction l as [|x l IH]; intros l' s H; destruct l' as [|y l']; cbn in H; try discriminate; cbn; auto.
  assert (Hc : core y = core x) by congruence.
  assert (Hl : map core l' = map core l) by congruence.
  assert (E : s_id y = s_id x) by (unfold core in Hc; congruence).
  rewrite E. destruct (N.eqb (s_id x) s); auto.
  apply IH. exact Hl.
Qed.

Lemma get_session_core : forall sv sv' s, same_core sv sv' ->
  match get_session sv s, get_session sv' s with
  | Some a, Some b => core b = core a
  | None, None => True
  | _, _ => False
  end.
Proof. intros sv sv' s [_ H]. unfold get_session. now apply find_session_core. Qed.


(* ------------------------------------------------------------------ the invariant *)

(* the number a node's subscriber table must hold for session id s *)
Definition count_for (sv : server) (s : sid) (p : path) : N :=
  match get_session sv s with
  | Some ss => N.of_nat (count_matching (s_subs ss) p)
  | None => 0%N
  end.

(* [exc] is the one session directory allowed to be missing (while its session arrives or leaves); [] = none *)
Record inv_x (B : nat) (exc : path) (sv : server) : Prop := mkInv {
  inv_tree : wf_tree (sv_tree sv);
  inv_ids : NoDup (map s_id (sv_sessions sv));
  inv_dirs_nodup : NoDup (map session_dir (sv_sessions sv));
  inv_subs : forall ss, In ss (sv_sessions sv) -> wf_matcher (s_subs ss) /\ num_entries (s_subs ss) <= B;
  inv_dirs : forall ss, In ss (sv_sessions sv) -> session_dir ss = exc \/ has_node (sv_tree sv) (session_dir ss) = true;
  inv_depth2 : forall n, In n (sv_tree sv) -> length (n_path n) = 2 ->
                         exists ss, In ss (sv_sessions sv) /\ session_dir ss = n_path n;
  inv_marks : forall n, In n (sv_tree sv) ->
                        tbl_ok (n_subs n) /\ forall s, tbl_get (n_subs n) s = count_for sv s (n_path n)
}.

Definition inv (B : nat) (sv : server) : Prop := inv_x B [] sv.

Lemma in_map_core : forall (l l' : list session) ss', map core l' = map core l -> In ss' l' ->
  exists ss, In ss l /\ core ss' = core ss.
Proof.
  induction l as [|x l IH]; intros l' ss' H Hin; destruct l' as [|y l']; cbn in H; try discriminate; [contradiction|].
  assert (Hc : core y = core x) by congruence.
  assert (Hl : map core l' = map core l) by congruence.
  destruct Hin as [Hin|Hin].
  - subst. exists x. split; [now left|auto].
  - destruct (IH l' ss' Hl Hin) as [ss [H1 H2]]. exists ss. split; [now right|auto].
Qed.

Lemma core_dir_exists : forall (l l' : list session) d, map core l' = map core l ->
  (exists ss, In ss l /\ session_dir ss = d) -> exists ss', In ss' l' /\ session_dir ss' = d.
Proof.
  intros l l' d H [ss [H1 H2]]. symmetry in H. destruct (in_map_core _ _ ss H H1) as [ss' [H3 H4]].
  exists ss'. split; auto. rewrite <- H2. unfold session_dir. unfold core in H4. congruence.
Qed.

Lemma map_core_proj : forall (B : Type) (f : session -> B) (g : sid * name * name * matcher -> B) (l l' : list session),
  (forall x, f x = g (core x)) -> map core l' = map core l -> map f l' = map f l.
Proof.
  intros B f g l l' Hf H.
  rewrite (map_ext f (fun x => g (core x))) by exact Hf.
  rewrite (map_ext f (fun x => g (core x)) Hf l).
  rewrite <- !(map_map core g). now rewrite H.
Qed.

Lemma count_for_core : forall sv sv' s p, same_core sv sv' -> count_for sv' s p = count_for sv s p.
Proof.
  intros sv sv' s p H. unfold count_for. pose proof (get_session_core sv sv' s H) as Hc.
  destruct (get_session sv s) as [a|], (get_session sv' s) as [b|]; try contradiction; auto.
  unfold core in Hc. assert (s_subs b = s_subs a) by congruence. congruence.
Qed.

Lemma inv_same_core : forall B exc sv sv', same_core sv sv' -> inv_x B exc sv -> inv_x B exc sv'.
Proof.
  intros B exc sv sv' Hsc [I1 I2 I3 I4 I5 I6 I7]. pose proof Hsc as [Ht Hs].
  constructor.
  - now rewrite Ht.
  - rewrite (map_core_proj _ s_id (fun c => fst (fst (fst c))) _ _ (fun x => eq_refl) Hs). exact I2.
  - rewrite (map_core_proj _ session_dir (fun c => [snd (fst (fst c)); snd (fst c)]) _ _ (fun x => eq_refl) Hs).
    exact I3.
  - intros ss' Hin. destruct (in_map_core _ _ ss' Hs Hin) as [ss [H1 H2]].
    assert (s_subs ss' = s_subs ss) by (unfold core in H2; congruence). rewrite H. now apply I4.
  - intros ss' Hin. destruct (in_map_core _ _ ss' Hs Hin) as [ss [H1 H2]].
    assert (session_dir ss' = session_dir ss) by (unfold session_dir; unfold core in H2; congruence).
    rewrite H, Ht. now apply I5.
  - intros n Hn Hl. rewrite Ht in Hn. apply (core_dir_exists _ _ _ Hs). now apply I6.
  - intros n Hn. rewrite Ht in Hn. destruct (I7 n Hn) as [H1 H2]. split; auto.
    intros s. rewrite H2. symmetry. now apply count_for_core.
Qed.

Lemma inv_weaken : forall B B' exc sv, B <= B' -> inv_x B exc sv -> inv_x B' exc sv.
Proof.
  intros B B' exc sv Hle [I1 I2 I3 I4 I5 I6 I7]. constructor; auto.
  intros ss Hin. destruct (I4 ss Hin). split; auto. lia.
Qed.


(* ------------------------------------------------------------------ counts *)

Lemma adj_new : forall cnt, (cnt < 2147483648)%N -> adjusted_count 0 (i32_of_u32 (u32 cnt)) = cnt.
Proof.
  intros cnt H. unfold adjusted_count, i32_of_u32, u32.
  rewrite N.mod_small by lia. apply N.ltb_lt in H. rewrite H.
  destruct (Z.eqb (Z.of_N cnt) 0) eqn:E.
  - apply Z.eqb_eq in E. lia.
  - assert (Z.leb 0 (Z.of_N cnt) = true) as -> by (apply Z.leb_le; lia).
    rewrite N2Z.id, N.add_0_l. apply N.mod_small. apply N.ltb_lt in H. lia.
Qed.

Lemma adj_inc : forall cur, (cur < 2147483647)%N -> adjusted_count cur 1 = (cur + 1)%N.
Proof. intros cur H. unfold adjusted_count, u32. cbn. apply N.mod_small. lia. Qed.

Lemma adj_dec : forall cur, (1 <= cur)%N -> adjusted_count cur (-1) = (cur - 1)%N.
Proof. intros cur H. unfold adjusted_count. cbn. apply N.leb_le in H. now rewrite H. Qed.

Lemma adj_clear : forall cur, (cur < 2147483647)%N -> adjusted_count cur cleanup_delta = 0%N.
Proof.
  intros cur H. unfold adjusted_count. change cleanup_delta with (-2147483647)%Z. cbn.
  assert (N.leb 2147483647 cur = false) as -> by (apply N.leb_gt; lia). reflexivity.
Qed.

(* the counts are uint32 and the deltas handed to GetDataNodeSubscribersTableFromPool int32: below 2^31 - 1 entries per
   session no count wraps and the delta of Cleanup (-(2^31 - 1)) clears every count *)
Definition small (B : nat) : Prop := (N.of_nat B < 2147483647)%N.

Lemma count_bound : forall B m p, num_entries m <= B -> small B ->
  (N.of_nat (count_matching m p) < 2147483647)%N.
Proof. intros B m p H1 H2. unfold small in H2. pose proof (count_le_entries m p). lia. Qed.

Lemma find_session_some : forall l s ss, find_session l s = Some ss -> In ss l /\ s_id ss = s.
Proof. exact (kfind_some session sid s_id N.eqb N.eqb_eq). Qed.

Lemma find_session_none : forall l s, find_session l s = None <-> ~ In s (map s_id l).
Proof.
  intros l s. rewrite in_map_iff. unfold find_session. rewrite (kfind_none session sid s_id N.eqb N.eqb_eq). split.
  - intros H [x [E Hx]]. now apply (H x).
  - intros H x Hx E. apply H. now exists x.
Qed.

Lemma find_session_in : forall l ss, NoDup (map s_id l) -> In ss l -> find_session l (s_id ss) = Some ss.
Proof. exact (kfind_in session sid s_id N.eqb N.eqb_eq). Qed.

(* NotifySubscribersOfNewNode: the table a new node starts with *)
Lemma new_table_fold : forall B p (l : list session) tb,
  small B -> NoDup (map s_id l) ->
  (forall ss, In ss l -> wf_matcher (s_subs ss) /\ num_entries (s_subs ss) <= B) ->
  tbl_ok tb -> (forall ss, In ss l -> tbl_get tb (s_id ss) = 0%N) ->
  let R := fold_left (fun tb ss => tbl_adjust tb (s_id ss) (i32_of_u32 (u32 (match_count (s_subs ss) p None 0)))) l tb in
  tbl_ok R /\ forall s, tbl_get R s = match find_session l s with
                                      | Some ss => N.of_nat (count_matching (s_subs ss) p)
                                      | None => tbl_get tb s
                                      end.
Proof.
  intros B p. induction l as [|x l IH]; intros tb HB Hnd Hwf Hok H0; cbn [fold_left find_session]; [split; auto|].
  cbn in Hnd. inversion Hnd as [|? ? Hx Hnd']; subst.
  set (tb1 := tbl_adjust tb (s_id x) (i32_of_u32 (u32 (match_count (s_subs x) p None 0)))).
  destruct (Hwf x (or_introl eq_refl)) as [Hwx Hbx].
  assert (Hcx : forall s, tbl_get tb1 s = if N.eqb (s_id x) s then N.of_nat (count_matching (s_subs x) p) else tbl_get tb s).
  { intros s. unfold tb1. rewrite tbl_adjust_get by auto. destruct (N.eqb (s_id x) s); auto.
    rewrite (H0 x (or_introl eq_refl)), match_count_spec by (apply Hwx). apply adj_new.
    pose proof (count_bound B (s_subs x) p Hbx HB). lia. }
  destruct (IH tb1 HB Hnd') as [R1 R2].
  - intros ss Hss. apply Hwf. now right.
  - unfold tb1. now apply tbl_adjust_ok.
  - intros ss Hss. rewrite Hcx. destruct (N.eqb (s_id x) (s_id ss)) eqn:E.
    + apply N.eqb_eq in E. exfalso. apply Hx. rewrite E. now apply in_map.
    + apply H0. now right.
  - split; auto. intros s. rewrite R2. destruct (N.eqb (s_id x) s) eqn:E.
    + apply N.eqb_eq in E. subst s.
      assert (find_session l (s_id x) = None) as -> by now apply find_session_none.
      rewrite Hcx, N.eqb_refl. reflexivity.
    + destruct (find_session l s); auto. rewrite Hcx, E. reflexivity.
Qed.

Lemma new_node_table_spec : forall B exc sv p, small B -> inv_x B exc sv ->
  tbl_ok (new_node_table sv p) /\ forall s, tbl_get (new_node_table sv p) s = count_for sv s p.
Proof.
  intros B exc sv p HB I. unfold new_node_table, count_for, get_session.
  destruct (new_table_fold B p (sv_sessions sv) [] HB (inv_ids _ _ _ I) (inv_subs _ _ _ I)) as [R1 R2].
  - split; [constructor|intros k c []].
  - intros ss _. reflexivity.
  - split; auto.
Qed.

(* ------------------------------------------------------------------ marking the nodes of a subscription *)

Definition adj_node (s : sid) (delta : Z) (n : node) : node :=
  mkNode (n_path n) (n_data n) (tbl_adjust (n_subs n) s delta).

Lemma fold_adjust : forall s delta (V : list node) t0,
  NoDup (map n_path V) ->
  fold_left (fun acc n => adjust_subs acc (n_path n) s delta) V t0
  = map (fun n0 => if pmem (n_path n0) (map n_path V) then adj_node s delta n0 else n0) t0.
Proof.
  intros s delta. induction V as [|v V IH]; intros t0 Hnd; cbn [fold_left map].
  - cbn. now rewrite map_id.
  - cbn in Hnd. inversion Hnd as [|? ? Hv Hnd']; subst.
    rewrite IH by auto. unfold adjust_subs, map_node. rewrite map_map. apply map_ext. intros n0.
    fold (adj_node s delta n0).
    unfold pmem at 2. cbn [existsb]. fold (pmem (n_path n0) (map n_path V)).
    destruct (path_eqb (n_path n0) (n_path v)) eqn:E.
    + cbn [orb n_path adj_node]. apply path_eqb_eq in E.
      assert (pmem (n_path n0) (map n_path V) = false) as ->; [|reflexivity].
      destruct (pmem (n_path n0) (map n_path V)) eqn:E'; auto. apply pmem_spec in E'. rewrite E in E'. contradiction.
    + cbn [orb]. reflexivity.
Qed.

Lemma mark_nodes_spec : forall t m s delta, wf_tree t -> wf_groups (m_groups m) ->
  mark_nodes fx t m s delta
  = map (fun n => if matches_node m (n_path n) None 0 then adj_node s delta n else n) t.
Proof.
  intros t m s delta Ht Hm. unfold mark_nodes. rewrite guard_on, do_traversal_continue.
  assert (Hin : forall n, In n t -> pmem (n_path n) (map n_path (vlist t m [] false)) = matches_node m (n_path n) None 0).
  { intros n Hn. apply Bool.eq_iff_eq_true. rewrite pmem_spec, in_map_iff. split.
    - intros [n' [E Hn']]. apply vlist_spec in Hn' as [Hn' [_ Hm']]; auto.
      rewrite <- (node_eq_by_path t n' n (proj1 Ht) Hn' Hn E). exact Hm'.
    - intros Hm'. exists n. split; [reflexivity|]. apply vlist_spec; auto. split; [exact Hn|split; [|exact Hm']].
      exists (n_path n). split; [now apply (proj1 (proj2 Ht))|reflexivity]. }
  rewrite fold_adjust by now apply vlist_nodup_paths.
  apply map_ext_in. intros n Hn. now rewrite Hin.
Qed.


(* ------------------------------------------------------------------ sessions under updates *)

Lemma get_session_upd : forall sv s f s', (forall x, s_id (f x) = s_id x) ->
  get_session (upd_session sv s f) s' = if N.eqb s s' then option_map f (get_session sv s') else get_session sv s'.
Proof.
  intros sv s f s' Hf. unfold get_session, upd_session. cbn [sv_sessions].
  induction (sv_sessions sv) as [|x l IH]; cbn.
  - destruct (N.eqb s s'); reflexivity.
  - destruct (N.eqb (s_id x) s) eqn:E.
    + apply N.eqb_eq in E. rewrite Hf. destruct (N.eqb (s_id x) s') eqn:E'.
      * apply N.eqb_eq in E'. subst. rewrite N.eqb_refl. reflexivity.
      * rewrite IH. reflexivity.
    + destruct (N.eqb (s_id x) s') eqn:E'; [|apply IH].
      apply N.eqb_eq in E'. subst s'. rewrite N.eqb_sym, E. reflexivity.
Qed.

(* ------------------------------------------------------------------ changes of the tree alone *)

Lemma inv_map_tree : forall B exc sv (g : node -> node),
  (forall n, n_path (g n) = n_path n) -> (forall n, n_subs (g n) = n_subs n) ->
  inv_x B exc sv -> inv_x B exc (set_tree sv (map g (sv_tree sv))).
Proof.
  intros B exc sv g Hp Hs [I1 I2 I3 I4 I5 I6 I7]. constructor; cbn [sv_tree sv_sessions set_tree]; auto.
  - now apply wf_tree_map.
  - intros ss Hin. destruct (I5 ss Hin); [now left|right]. now rewrite has_node_map.
  - intros n' Hn' Hl. apply in_map_iff in Hn' as [n [H1 H2]]. subst n'. rewrite Hp in *. now apply I6.
  - intros n' Hn'. apply in_map_iff in Hn' as [n [H1 H2]]. subst n'. rewrite Hp, Hs. now apply I7.
Qed.

Lemma inv_set_data : forall B exc sv p d, inv_x B exc sv -> inv_x B exc (set_tree sv (set_data (sv_tree sv) p d)).
Proof.
  intros B exc sv p d I. unfold set_data, map_node. apply inv_map_tree; auto.
  - intros n. destruct (path_eqb (n_path n) p); reflexivity.
  - intros n. destruct (path_eqb (n_path n) p); reflexivity.
Qed.

Lemma inv_add_node : forall B exc sv pp k d, small B -> inv_x B exc sv ->
  find_node (sv_tree sv) (pp ++ [k]) = None -> (pp = [] \/ has_node (sv_tree sv) pp = true) ->
  (length (pp ++ [k]) = 2 -> exists ss, In ss (sv_sessions sv) /\ session_dir ss = pp ++ [k]) ->
  inv_x B exc (set_tree sv (add_node (sv_tree sv) (mkNode (pp ++ [k]) d (new_node_table sv (pp ++ [k]))))).
Proof.
  intros B exc sv pp k d HB I Hnone Hpp Hd2. pose proof I as [I1 I2 I3 I4 I5 I6 I7].
  constructor; cbn [sv_tree sv_sessions set_tree]; auto.
  - now apply wf_tree_add.
  - intros ss Hin. destruct (I5 ss Hin); [now left|right]. now apply has_node_add.
  - intros n Hn Hl. apply in_app_or in Hn as [Hn|[Hn|[]]]; [now apply I6|]. subst n. cbn in *. now apply Hd2.
  - intros n Hn. apply in_app_or in Hn as [Hn|[Hn|[]]]; [now apply I7|]. subst n. cbn [n_subs n_path].
    destruct (new_node_table_spec B exc sv (pp ++ [k]) HB I) as [H1 H2]. split; [exact H1|exact H2].
Qed.

Lemma set_data_loop_inv : forall B exc cl sv by_ pp d dc dow q, small B ->
  inv_x B exc sv -> has_node (sv_tree sv) pp = true -> 2 <= length pp ->
  inv_x B exc (set_data_loop sv by_ pp cl d dc dow q).
Proof.
  intros B exc. induction cl as [|k rest IH]; intros sv by_ pp d dc dow q HB I Hpp Hlen; cbn [set_data_loop]; auto.
  destruct (find_node (sv_tree sv) (pp ++ [k])) as [n|] eqn:Hf.
  - destruct rest as [|k2 rest2].
    + destruct dow; auto.
      pose proof (inv_set_data B exc sv (pp ++ [k]) d I) as I'.
      destruct q; auto. eapply inv_same_core; [apply notify_changed_core|exact I'].
    + apply IH; auto.
      * apply has_node_spec. apply find_node_some in Hf. eauto.
      * rewrite app_length. cbn. lia.
  - destruct dc; auto.
    destruct (Nat.leb max_node_depth (length pp)); auto.
    set (sv1 := set_tree sv (add_node (sv_tree sv) _)).
    assert (I' : inv_x B exc sv1).
    { apply inv_add_node; auto. intros H. rewrite app_length in H. cbn in H. lia. }
    (* the creation notice changes neither tree nor sessions' cores *)
    set (sv2 := if q then sv1 else _).
    assert (Hsc : same_core sv1 sv2) by (unfold sv2; destruct q; [apply same_core_refl|apply notify_changed_core]).
    pose proof (inv_same_core B exc sv1 sv2 Hsc I') as I2.
    destruct rest as [|k2 rest2]; [exact I2|].
    apply IH; auto.
    + destruct Hsc as [Ht _]. rewrite Ht. apply has_node_spec.
      eexists. split; [apply in_or_app; right; left; reflexivity|reflexivity].
    + rewrite app_length. cbn. lia.
Qed.


(* ------------------------------------------------------------------ removal *)

Lemma remove_subtree_spec : forall sv by_ p notify, wf_tree (sv_tree sv) -> p <> [] ->
  sv_tree (remove_subtree sv by_ p notify) = prune_tree (sv_tree sv) p
  /\ map core (sv_sessions (remove_subtree sv by_ p notify)) = map core (sv_sessions sv).
Proof.
  intros sv by_ p notify Hwf Hp. unfold remove_subtree.
  rewrite <- (fold_remove_subtree (sv_tree sv) p Hwf Hp).
  generalize (removal_order (S (length (sv_tree sv))) (sv_tree sv) p). intros Lq.
  generalize sv. clear. induction Lq as [|q Lq IH]; intros sv; cbn [fold_left]; [split; reflexivity|].
  destruct (find_node (sv_tree sv) q) as [n|] eqn:Hf.
  - match goal with |- context [fold_left _ Lq ?X] => destruct (IH X) as [H1 H2] end.
    rewrite H1, H2. cbn [sv_tree sv_sessions set_tree].
    destruct notify; [|split; reflexivity].
    destruct (notify_changed_core sv by_ q (n_data n) (Some (n_data n)) true) as [Ht Hs].
    rewrite Ht, Hs. split; reflexivity.
  - rewrite (remove_node_absent _ _ Hf). apply IH.
Qed.

Lemma session_depth_eq : session_depth = 2.
Proof. reflexivity. Qed.

Lemma session_dir_length : forall ss : session, length (session_dir ss) = 2.
Proof. reflexivity. Qed.

Lemma inv_prune : forall B exc exc' sv sv' p, inv_x B exc sv ->
  sv_tree sv' = prune_tree (sv_tree sv) p ->
  map core (sv_sessions sv') = map core (sv_sessions sv) ->
  (forall ss, In ss (sv_sessions sv) -> is_prefix p (session_dir ss) = true -> session_dir ss = exc') ->
  (forall ss, In ss (sv_sessions sv) -> session_dir ss = exc -> session_dir ss = exc') ->
  inv_x B exc' sv'.
Proof.
  intros B exc exc' sv sv' p I Ht Hs Hunder Hexc.
  apply (inv_same_core B exc' (set_tree sv (prune_tree (sv_tree sv) p)) sv'); [split; auto|].
  destruct I as [I1 I2 I3 I4 I5 I6 I7]. constructor; cbn [sv_tree sv_sessions set_tree]; auto.
  - now apply wf_tree_prune.
  - intros ss Hin. destruct (I5 ss Hin) as [H|H]; [left; now apply Hexc|].
    destruct (is_prefix p (session_dir ss)) eqn:E; [left; now apply Hunder|right; now apply has_node_prune].
  - intros n Hn Hl. apply in_prune in Hn as [Hn _]. now apply I6.
  - intros n Hn. apply in_prune in Hn as [Hn _]. now apply I7.
Qed.

Lemma is_prefix_length : forall p q, is_prefix p q = true -> length p <= length q.
Proof. intros p q H. apply is_prefix_spec in H as [r Hr]. rewrite Hr, app_length. lia. Qed.

Lemma do_remove_data_inv : forall B exc sv ss keys quiet, inv_x B exc sv -> inv_x B exc (do_remove_data fx sv ss keys quiet).
Proof.
  intros B exc sv ss keys quiet I. unfold do_remove_data.
  set (rs := do_traversal remove_cb (sv_tree sv) (m_of_list keys) (session_dir ss) true (fx_guard fx) []).
  assert (Hrs : forall p, In p rs -> 2 < length p).
  { unfold rs. apply (do_traversal_Q (list path) remove_cb (fun acc => forall p, In p acc -> 2 < length p)).
    - intros acc n Hacc. unfold remove_cb. rewrite session_depth_eq.
      destruct (Nat.ltb 2 (depth n)) eqn:E; cbn [fst]; auto.
      intros p [Hp|Hp]; [|now apply Hacc]. subst p. now apply Nat.ltb_lt in E.
    - intros p []. }
  clearbody rs. revert sv I. induction rs as [|p rs IH]; intros sv I; cbn [fold_left]; auto.
  apply IH; [intros q Hq; apply Hrs; now right|].
  destruct (has_node (sv_tree sv) p) eqn:Hh; auto.
  assert (Hp : 2 < length p) by (apply Hrs; now left).
  destruct (remove_subtree_spec sv (s_id ss) p (negb quiet)) as [Ht Hs].
  - apply (inv_tree _ _ _ I).
  - destruct p; [cbn in Hp; lia|discriminate].
  - apply (inv_prune B exc exc sv _ p I Ht Hs); auto.
    intros ss' _ Hpre. apply is_prefix_length in Hpre. rewrite session_dir_length in Hpre. lia.
Qed.


(* ------------------------------------------------------------------ changing one session's subscriptions and re-marking *)

(* One session's subscriptions become m' and the nodes matcher mk selects are re-marked by delta: the invariant is kept
   if on every node the new match count is the old one adjusted exactly where mk matches.  Subscribe (mk = the new
   path, +1), unsubscribe (-1) and Cleanup (mk = all subscriptions, the clearing delta) are instances. *)
Lemma inv_remark : forall B B' exc sv s ss m' mk delta,
  inv_x B exc sv -> get_session sv s = Some ss -> B <= B' ->
  wf_matcher m' -> num_entries m' <= B' -> wf_groups (m_groups mk) ->
  (forall n, In n (sv_tree sv) ->
     N.of_nat (count_matching m' (n_path n))
     = if matches_node mk (n_path n) None 0
       then adjusted_count (N.of_nat (count_matching (s_subs ss) (n_path n))) delta
       else N.of_nat (count_matching (s_subs ss) (n_path n))) ->
  inv_x B' exc (set_tree (upd_session sv s (fun x => set_subs x m'))
                         (mark_nodes fx (sv_tree sv) mk s delta)).
Proof.
  intros B B' exc sv s ss m' mk delta I Hss HB Hwm' Hnm' Hwmk Hcnt.
  pose proof I as [I1 I2 I3 I4 I5 I6 I7].
  rewrite mark_nodes_spec by auto.
  set (g := fun n => if matches_node mk (n_path n) None 0 then adj_node s delta n else n).
  assert (Hg : forall n, n_path (g n) = n_path n).
  { intros n. unfold g. destruct (matches_node mk (n_path n) None 0); reflexivity. }
  set (h := fun x : session => if N.eqb (s_id x) s then set_subs x m' else x).
  assert (Hid : forall x, s_id (h x) = s_id x) by (intros x; unfold h; destruct (N.eqb (s_id x) s); reflexivity).
  assert (Hdir : forall x, session_dir (h x) = session_dir x) by (intros x; unfold h; destruct (N.eqb (s_id x) s); reflexivity).
  constructor; cbn [sv_tree sv_sessions set_tree upd_session].
  - now apply wf_tree_map.
  - rewrite map_map. rewrite (map_ext _ _ Hid). exact I2.
  - rewrite map_map. rewrite (map_ext _ _ Hdir). exact I3.
  - intros x' Hin. apply in_map_iff in Hin as [x [Hx1 Hx2]]. subst x'. fold h. unfold h.
    destruct (N.eqb (s_id x) s); [cbn; auto|]. destruct (I4 x Hx2). split; auto. lia.
  - intros x' Hin. apply in_map_iff in Hin as [x [Hx1 Hx2]]. subst x'. fold (h x). rewrite Hdir.
    destruct (I5 x Hx2); [now left|right]. now rewrite has_node_map.
  - intros n' Hn' Hl. apply in_map_iff in Hn' as [n [H1 H2]]. subst n'. rewrite Hg in Hl. rewrite Hg.
    destruct (I6 n H2 Hl) as [x [Hx1 Hx2]]. exists (h x). split.
    + apply in_map_iff. exists x. split; [reflexivity|exact Hx1].
    + rewrite Hdir. exact Hx2.
  - intros n' Hn'. apply in_map_iff in Hn' as [n [H1 H2]]. subst n'. rewrite Hg.
    destruct (I7 n H2) as [Hok Hget].
    split.
    + unfold g. destruct (matches_node mk (n_path n) None 0); auto. cbn. now apply tbl_adjust_ok.
    + intros s'. unfold count_for.
      change (get_session (set_tree (upd_session sv s (fun x => set_subs x m')) (map g (sv_tree sv))) s')
        with (get_session (upd_session sv s (fun x => set_subs x m')) s').
      rewrite get_session_upd by reflexivity.
      destruct (N.eqb s s') eqn:E.
      * apply N.eqb_eq in E. subst s'. rewrite Hss. cbn [option_map set_subs s_subs].
        rewrite (Hcnt n H2). pose proof (Hget s) as Hs. unfold count_for in Hs. rewrite Hss in Hs.
        unfold g. destruct (matches_node mk (n_path n) None 0); [|exact Hs].
        cbn [adj_node n_subs]. rewrite tbl_adjust_get by auto. rewrite N.eqb_refl, Hs. reflexivity.
      * pose proof (Hget s') as Hs. unfold count_for in Hs. rewrite <- Hs.
        unfold g. destruct (matches_node mk (n_path n) None 0); [|reflexivity].
        cbn [adj_node n_subs]. rewrite tbl_adjust_get by auto. now rewrite E.
Qed.


Lemma session_unique : forall sv s ss x, NoDup (map s_id (sv_sessions sv)) ->
  get_session sv s = Some ss -> In x (sv_sessions sv) -> s_id x = s -> x = ss.
Proof.
  intros sv s ss x Hnd Hss Hx Hid. pose proof (find_session_in _ x Hnd Hx) as H.
  unfold get_session in Hss. rewrite Hid in H. congruence.
Qed.

Lemma upd_session_ext : forall sv s f f',
  (forall x, In x (sv_sessions sv) -> s_id x = s -> f x = f' x) -> upd_session sv s f = upd_session sv s f'.
Proof.
  intros sv s f f' H. unfold upd_session. f_equal. apply map_ext_in. intros x Hx.
  destruct (N.eqb (s_id x) s) eqn:E; auto. apply N.eqb_eq in E. now apply H.
Qed.

Lemma matches_node_empty : forall p d rd, matches_node empty_matcher p d rd = false.
Proof. intros p d rd. unfold matches_node. cbn [empty_matcher m_groups group_get existsb]. destruct (Nat.ltb (length p) rd); reflexivity. Qed.

Lemma set_tree_same : forall sv, set_tree sv (sv_tree sv) = sv.
Proof. intros [t l d]. reflexivity. Qed.

(* a change of one session's subscriptions that does not change any match count *)
Lemma inv_set_subs : forall B exc sv s ss m', inv_x B exc sv -> get_session sv s = Some ss ->
  wf_matcher m' -> num_entries m' <= B ->
  (forall p, count_matching m' p = count_matching (s_subs ss) p) ->
  inv_x B exc (upd_session sv s (fun x => set_subs x m')).
Proof.
  intros B exc sv s ss m' I Hss Hwf Hn Hc.
  pose proof (inv_remark B B exc sv s ss m' empty_matcher 0 I Hss (le_n _) Hwf Hn (proj1 wf_empty)) as H.
  rewrite mark_nodes_spec in H; [|apply (inv_tree _ _ _ I)|apply wf_empty].
  rewrite (map_ext _ (fun n => n)) in H by (intros n; now rewrite matches_node_empty).
  rewrite map_id in H.
  change (sv_tree sv) with (sv_tree (upd_session sv s (fun x => set_subs x m'))) in H.
  rewrite set_tree_same in H. apply H.
  intros n _. rewrite matches_node_empty. now rewrite Hc.
Qed.

Lemma cqf_cb_core : forall s oldf newf sv n, same_core sv (cqf_cb fx s oldf newf sv n).
Proof.
  intros s oldf newf sv n. unfold cqf_cb.
  destruct (Bool.eqb _ _); [apply same_core_refl|].
  destruct (get_session sv s); [|apply same_core_refl].
  destruct (_ && _); [apply same_core_refl|apply node_changed_aux_core].
Qed.

Lemma cqf_traversal_core : forall s oldf newf t m root uf gf sv,
  same_core sv (do_traversal (continue_cb (cqf_cb fx s oldf newf)) t m root uf gf sv).
Proof.
  intros s oldf newf t m root uf gf sv.
  apply (do_traversal_Q server (continue_cb (cqf_cb fx s oldf newf)) (fun acc => same_core sv acc)).
  - intros acc n H. unfold continue_cb. cbn [fst]. eapply same_core_trans; [exact H|apply cqf_cb_core].
  - apply same_core_refl.
Qed.

Lemma subscribe_one_inv : forall B exc sv s sf, small (S B) ->
  inv_x B exc sv -> inv_x (S B) exc (subscribe_one fx sv s sf).
Proof.
  intros B exc sv s [sp f] HB I. unfold subscribe_one. cbn [fst snd].
  destruct (get_session sv s) as [ss|] eqn:Hss; [|apply (inv_weaken B); auto].
  destruct (fix_path sp) as [|c fp'] eqn:Hfp; [apply (inv_weaken B); auto|]. rewrite <- Hfp.
  assert (Hne : fix_path sp <> []) by (rewrite Hfp; discriminate).
  assert (Hin : In ss (sv_sessions sv)) by (apply find_session_some in Hss; tauto).
  destruct (inv_subs _ _ _ I ss Hin) as [Hw Hn].
  destruct (m_get (s_subs ss) (fix_path sp)) as [e|] eqn:Hget.
  - (* the path is already subscribed: only its filter changes *)
    match goal with |- inv_x _ _ (upd_session ?X s _) => set (sv1 := X) end.
    assert (Hsc : same_core sv sv1).
    { unfold sv1. destruct f, (e_flt e); try apply cqf_traversal_core. apply same_core_refl. }
    pose proof (inv_same_core B exc sv sv1 Hsc I) as I1.
    pose proof (get_session_core sv sv1 s Hsc) as Hc. rewrite Hss in Hc.
    destruct (get_session sv1 s) as [ss1|] eqn:Hss1; [|contradiction].
    assert (Hsub : s_subs ss1 = s_subs ss) by (unfold core in Hc; congruence).
    apply (inv_weaken B); auto.
    rewrite (upd_session_ext sv1 s _ (fun x => set_subs x (m_set_filter (s_subs ss1) (fix_path sp) f))).
    + apply (inv_set_subs B exc sv1 s ss1); auto.
      * rewrite Hsub. now apply wf_matcher_set_filter.
      * rewrite num_entries_set_filter, Hsub. exact Hn.
      * intros p. apply count_matching_set_filter.
    + intros x Hx Hid. now rewrite (session_unique sv1 s ss1 x (inv_ids _ _ _ I1) Hss1 Hx Hid).
  - (* a new subscription path: add it and mark the matching nodes *)
    rewrite (upd_session_ext sv s _ (fun x => set_subs x (m_put (s_subs ss) (fix_path sp) f))).
    + change (sv_tree (upd_session sv s (fun x => set_subs x (m_put (s_subs ss) (fix_path sp) f)))) with (sv_tree sv).
      apply (inv_remark B (S B) exc sv s ss); auto.
      * now apply wf_matcher_put.
      * pose proof (num_entries_put (s_subs ss) (fix_path sp) f). lia.
      * unfold single. now apply single_wf.
      * intros n Hn'. unfold single. rewrite single_matches by auto.
        rewrite count_matching_put by auto. rewrite Hget.
        destruct (pat_matches (fix_path sp) (n_path n)); cbn [b2n]; [|f_equal; lia].
        rewrite adj_inc; [lia|].
        pose proof (count_le_entries (s_subs ss) (n_path n)). unfold small in HB. lia.
    + intros x Hx Hid. now rewrite (session_unique sv s ss x (inv_ids _ _ _ I) Hss Hx Hid).
Qed.

Lemma unsubscribe_one_inv : forall B exc sv s sp, small B ->
  inv_x B exc sv -> inv_x B exc (unsubscribe_one fx sv s sp).
Proof.
  intros B exc sv s sp HB I. unfold unsubscribe_one.
  destruct (get_session sv s) as [ss|] eqn:Hss; auto.
  assert (Hin : In ss (sv_sessions sv)) by (apply find_session_some in Hss; tauto).
  destruct (inv_subs _ _ _ I ss Hin) as [Hw Hn].
  destruct (m_remove (s_subs ss) (fix_path sp)) as [m'|] eqn:Hrm; auto.
  assert (Hne : fix_path sp <> []).
  { intros E. rewrite E in Hrm. unfold m_remove, m_get in Hrm. cbn in Hrm.
    assert (Hg : forall e, In e (group_get (m_groups (s_subs ss)) 0) -> False).
    { intros e He. apply group_get_in in He as [g [Hg [Hd _]]]. destruct Hw as [[_ Hw] _]. destruct (Hw g Hg) as [_ [H1 _]]. lia. }
    destruct (group_get (m_groups (s_subs ss)) 0) as [|e0 l]; [discriminate|]. apply (Hg e0). now left. }
  change (sv_tree (upd_session sv s (fun x => set_subs x m'))) with (sv_tree sv).
  apply (inv_remark B B exc sv s ss); auto.
  - now apply (wf_matcher_remove (s_subs ss) (fix_path sp)).
  - pose proof (num_entries_remove _ _ _ Hrm). lia.
  - unfold single. now apply single_wf.
  - intros n Hn'. unfold single. rewrite single_matches by auto.
    pose proof (count_matching_remove _ _ _ (n_path n) Hrm) as Hc.
    destruct (pat_matches (fix_path sp) (n_path n)); cbn [b2n] in Hc; [|f_equal; lia].
    rewrite adj_dec; lia.
Qed.


(* ------------------------------------------------------------------ GETDATA touches no tree, no subscription *)

Lemma getdata_cb_core : forall sv s acc n,
  same_core sv (snd acc) -> same_core sv (snd (fst (getdata_cb s acc n))).
Proof.
  intros sv s [reply sv0] n Hq. unfold getdata_cb. cbn [snd] in Hq.
  destruct (get_session sv0 s) as [ss|]; [|exact Hq].
  destruct (own_node ss (n_path n)); [exact Hq|].
  destruct (N.leb _ _); cbn [fst snd]; auto.
  eapply same_core_trans; [exact Hq|]. apply upd_session_core. reflexivity.
Qed.

Lemma do_get_data_core : forall sv s keys, same_core sv (do_get_data fx sv s keys).
Proof.
  intros sv s keys. unfold do_get_data.
  match goal with |- context [do_traversal ?cb ?t ?m ?r ?u ?g ?a] =>
    pose proof (do_traversal_Q (option ditems * server) cb (fun acc => same_core sv (snd acc)) t m u g
                  (getdata_cb_core sv s) r a (same_core_refl sv)) as H;
    destruct (do_traversal cb t m r u g a) as [reply sv1] end.
  cbn [snd] in H. destruct reply; auto.
  eapply same_core_trans; [exact H|]. apply upd_session_core. reflexivity.
Qed.

(* ------------------------------------------------------------------ a session arrives *)

Lemma find_session_app : forall l x s,
  find_session (l ++ [x]) s = match find_session l s with
                              | Some y => Some y
                              | None => if N.eqb (s_id x) s then Some x else None
                              end.
Proof.
  induction l as [|y l IH]; intros x s; cbn; auto.
  destruct (N.eqb (s_id y) s); auto.
Qed.

Lemma inv_x_discharge : forall B exc sv, inv_x B exc sv -> has_node (sv_tree sv) exc = true -> inv_x B [] sv.
Proof.
  intros B exc sv [I1 I2 I3 I4 I5 I6 I7] H. constructor; auto.
  intros ss Hin. right. destruct (I5 ss Hin) as [E|E]; [now rewrite E|auto].
Qed.

Lemma inv_dirs_exist : forall B sv ss, inv B sv -> In ss (sv_sessions sv) -> has_node (sv_tree sv) (session_dir ss) = true.
Proof. intros B sv ss I Hin. destruct (inv_dirs _ _ _ I ss Hin) as [H|H]; [discriminate|auto]. Qed.

(* one new node with its creation notice *)
Lemma add_node_step : forall B exc sv by_ pp k d, small B -> inv_x B exc sv ->
  find_node (sv_tree sv) (pp ++ [k]) = None -> (pp = [] \/ has_node (sv_tree sv) pp = true) ->
  (length (pp ++ [k]) = 2 -> exists ss, In ss (sv_sessions sv) /\ session_dir ss = pp ++ [k]) ->
  let nd := mkNode (pp ++ [k]) d (new_node_table sv (pp ++ [k])) in
  let sv' := notify_changed (set_tree sv (add_node (sv_tree sv) nd)) by_ (pp ++ [k]) d None false in
  inv_x B exc sv' /\ sv_tree sv' = add_node (sv_tree sv) nd /\ map core (sv_sessions sv') = map core (sv_sessions sv).
Proof.
  intros B exc sv by_ pp k d HB I Hnone Hpp Hd2 nd sv'.
  pose proof (inv_add_node B exc sv pp k d HB I Hnone Hpp Hd2) as I'.
  destruct (notify_changed_core (set_tree sv (add_node (sv_tree sv) nd)) by_ (pp ++ [k]) d None false) as [Ht Hs].
  split; [|split; auto]. eapply inv_same_core; [split; eauto|exact I'].
Qed.

(* the state right after the new session has joined the session table *)
Lemma attach_pre : forall B sv s host nm, inv B sv -> get_session sv s = None ->
  (forall ss, In ss (sv_sessions sv) -> session_dir ss <> [host; nm]) ->
  let ssn := mkSession s host nm empty_matcher default_max_items None [] in
  let sv0 := mkServer (sv_tree sv) (sv_sessions sv ++ [ssn]) (sv_dirty sv) in
  inv_x B [host; nm] sv0 /\ find_node (sv_tree sv) [host; nm] = None.
Proof.
  intros B sv s host nm I Hnone Hfresh ssn sv0.
  assert (Habsent : find_node (sv_tree sv) [host; nm] = None).
  { apply find_node_none. intros n Hn Hp. destruct (inv_depth2 _ _ _ I n Hn) as [ss [H1 H2]]; [now rewrite Hp|].
    apply (Hfresh ss H1). congruence. }
  split; auto.
  pose proof I as [I1 I2 I3 I4 I5 I6 I7]. constructor; cbn [sv_tree sv_sessions sv0].
  - exact I1.
  - rewrite map_app. apply NoDup_app_intro; auto; [repeat constructor; intros []|].
    intros k Hk [Hk'|[]]. cbn in Hk'. subst k. unfold get_session in Hnone. apply find_session_none in Hnone. contradiction.
  - rewrite map_app. apply NoDup_app_intro; auto; [repeat constructor; intros []|].
    intros d Hd [Hd'|[]]. cbn in Hd'. subst d. apply in_map_iff in Hd as [ss [H1 H2]]. now apply (Hfresh ss).
  - intros ss Hin. apply in_app_or in Hin as [Hin|[Hin|[]]]; [now apply I4|]. subst ss. cbn. split; [apply wf_empty|lia].
  - intros ss Hin. apply in_app_or in Hin as [Hin|[Hin|[]]]; [|subst ss; now left].
    right. now apply (inv_dirs_exist B sv).
  - intros n Hn Hl. destruct (I6 n Hn Hl) as [ss [H1 H2]]. exists ss. split; [apply in_or_app; now left|auto].
  - intros n Hn. destruct (I7 n Hn) as [H1 H2]. split; auto. intros s'. rewrite H2.
    unfold count_for, get_session. cbn [sv_sessions sv0]. rewrite find_session_app.
    destruct (find_session (sv_sessions sv) s'); auto.
    cbn [s_id ssn]. destruct (N.eqb s s'); reflexivity.
Qed.

Lemma attach_inv : forall B sv s host nm, small B -> inv B sv -> get_session sv s = None ->
  (forall ss, In ss (sv_sessions sv) -> session_dir ss <> [host; nm]) ->
  inv B (attach sv s host nm).
Proof.
  intros B sv s host nm HB I Hnone Hfresh. unfold attach.
  set (ssn := mkSession s host nm empty_matcher default_max_items None []).
  set (sv0 := mkServer (sv_tree sv) (sv_sessions sv ++ [ssn]) (sv_dirty sv)).
  destruct (attach_pre B sv s host nm I Hnone Hfresh) as [I0 Habsent]. fold ssn sv0 in I0.
  assert (Hdir0 : exists ss, In ss (sv_sessions sv0) /\ session_dir ss = [host; nm]).
  { exists ssn. split; [cbn; apply in_or_app; right; now left|reflexivity]. }
  (* the host node, when it is not there yet *)
  match goal with |- inv B (push_all (notify_changed (set_tree ?X _) _ _ _ _ _)) => set (sv1 := X) end.
  assert (H1 : inv_x B [host; nm] sv1 /\ has_node (sv_tree sv1) [host] = true
               /\ find_node (sv_tree sv1) [host; nm] = None
               /\ exists ss, In ss (sv_sessions sv1) /\ session_dir ss = [host; nm]).
  { unfold sv1. destruct (has_node (sv_tree sv0) [host]) eqn:Hh.
    - split; [exact I0|split; [exact Hh|split; [exact Habsent|exact Hdir0]]].
    - assert (Hn0 : find_node (sv_tree sv0) ([] ++ [host]) = None).
      { unfold has_node in Hh. cbn [app]. destruct (find_node (sv_tree sv0) [host]); [discriminate|reflexivity]. }
      destruct (add_node_step B [host; nm] sv0 s [] host empty_payload HB I0 Hn0 (or_introl eq_refl)) as [Ia [Ht Hs]].
      { cbn. discriminate. }
      cbn [app] in *. split; [exact Ia|]. rewrite Ht. split; [|split].
      + apply has_node_spec. eexists. split; [apply in_or_app; right; left; reflexivity|reflexivity].
      + apply find_node_none. intros n Hn. apply in_app_or in Hn as [Hn|[Hn|[]]].
        * cbn [sv_tree sv0] in Hn. rewrite find_node_none in Habsent. now apply Habsent.
        * subst n. cbn. discriminate.
      + now apply (core_dir_exists (sv_sessions sv0)). }
  destruct H1 as [I1 [Hhost [Habs1 Hdir1]]].
  destruct (add_node_step B [host; nm] sv1 s [host] nm empty_payload HB I1 Habs1 (or_intror Hhost)) as [I2 [Ht2 _]].
  { intros _. exact Hdir1. }
  cbn [app] in *.
  eapply inv_same_core; [apply push_all_core|].
  apply (inv_x_discharge B [host; nm]); auto.
  rewrite Ht2. apply has_node_spec. eexists. split; [apply in_or_app; right; left; reflexivity|reflexivity].
Qed.


(* ------------------------------------------------------------------ a session leaves *)

Lemma is_prefix_same_length : forall p q, is_prefix p q = true -> length p = length q -> p = q.
Proof.
  intros p q H Hl. apply is_prefix_spec in H as [r Hr]. subst q. rewrite app_length in Hl.
  destruct r; [now rewrite app_nil_r|cbn in Hl; lia].
Qed.

Lemma has_node_prune_self : forall t p, has_node (prune_tree t p) p = false.
Proof.
  intros t p. destruct (has_node (prune_tree t p) p) eqn:E; auto.
  apply has_node_spec in E as [n [H1 H2]]. apply in_prune in H1 as [_ H1]. rewrite H2, is_prefix_refl in H1. discriminate.
Qed.

Lemma has_node_prune_sub : forall t p q, has_node (prune_tree t p) q = true -> has_node t q = true.
Proof.
  intros t p q H. apply has_node_spec in H as [n [H1 H2]]. apply in_prune in H1 as [H1 _].
  apply has_node_spec. eauto.
Qed.

Lemma has_children_false : forall t p n k, has_children t p = false -> In n t -> n_path n = p ++ [k] -> False.
Proof.
  intros t p n k H Hn Hp. unfold has_children in H.
  assert (Hc : In n (children t p)) by (apply children_in; eauto).
  destruct (children t p); [contradiction|discriminate].
Qed.

Lemma count_zero : forall m p, wf_groups (m_groups m) -> matches_node m p None 0 = false -> count_matching m p = 0.
Proof.
  intros m p Hwf H. unfold count_matching.
  destruct (filter (fun e => pat_matches (e_pat e) p) (all_entries m)) as [|e l] eqn:E; auto.
  exfalso. assert (He : In e (filter (fun e => pat_matches (e_pat e) p) (all_entries m))) by (rewrite E; now left).
  apply filter_In in He as [He1 He2].
  assert (matches_node m p None 0 = true); [|congruence].
  apply matches_node_spec; auto; [lia|]. exists e. split; auto.
  unfold path_matches. cbn [skipn]. rewrite He2. unfold filter_ok. now destruct (e_flt e).
Qed.

Lemma filter_upd : forall (l : list session) s f, (forall x, s_id (f x) = s_id x) ->
  filter (fun x => negb (N.eqb (s_id x) s)) (map (fun x => if N.eqb (s_id x) s then f x else x) l)
  = filter (fun x => negb (N.eqb (s_id x) s)) l.
Proof.
  intros l s f Hf. induction l as [|x l IH]; cbn; auto.
  destruct (N.eqb (s_id x) s) eqn:E.
  - rewrite Hf, E. cbn. exact IH.
  - rewrite E. cbn. now rewrite IH.
Qed.

Lemma find_session_filter : forall l s s', s <> s' ->
  find_session (filter (fun x => negb (N.eqb (s_id x) s)) l) s' = find_session l s'.
Proof.
  intros l s s' Hne. induction l as [|x l IH]; cbn; auto.
  destruct (N.eqb (s_id x) s) eqn:E; cbn.
  - apply N.eqb_eq in E. destruct (N.eqb (s_id x) s') eqn:E'; auto.
    apply N.eqb_eq in E'. congruence.
  - destruct (N.eqb (s_id x) s'); auto.
Qed.

Lemma find_session_filter_self : forall l s, find_session (filter (fun x => negb (N.eqb (s_id x) s)) l) s = None.
Proof.
  intros l s. induction l as [|x l IH]; cbn; auto.
  destruct (N.eqb (s_id x) s) eqn:E; cbn; auto. now rewrite E.
Qed.

(* the departing session: no subscription left, its directory gone *)
Lemma inv_drop : forall B exc sv s ss, inv_x B exc sv -> get_session sv s = Some ss ->
  (forall p, count_matching (s_subs ss) p = 0) -> session_dir ss = exc -> has_node (sv_tree sv) exc = false ->
  inv_x B [] (mkServer (sv_tree sv) (filter (fun x => negb (N.eqb (s_id x) s)) (sv_sessions sv)) (sv_dirty sv)).
Proof.
  intros B exc sv s ss [I1 I2 I3 I4 I5 I6 I7] Hss Hzero Hexc Hgone.
  constructor; cbn [sv_tree sv_sessions].
  - exact I1.
  - now apply NoDup_map_filter.
  - now apply NoDup_map_filter.
  - intros x Hin. apply filter_In in Hin as [Hin _]. now apply I4.
  - intros x Hin. apply filter_In in Hin as [Hin Hx]. right. destruct (I5 x Hin) as [E|E]; auto.
    (* a second session with the excepted directory would contradict NoDup of the directories *)
    exfalso. apply negb_true_iff, N.eqb_neq in Hx.
    apply find_session_some in Hss as [Hss1 Hss2].
    assert (x = ss); [|subst; contradiction].
    apply (NoDup_map_inj _ _ session_dir (sv_sessions sv)); auto. congruence.
  - intros n Hn Hl. destruct (I6 n Hn Hl) as [x [H1 H2]]. exists x. split; auto.
    apply filter_In. split; auto. apply negb_true_iff, N.eqb_neq. intros E.
    assert (x = ss) by (apply (session_unique sv s ss x I2 Hss H1 E)). subst x.
    assert (has_node (sv_tree sv) exc = true); [|congruence].
    apply has_node_spec. exists n. split; auto. congruence.
  - intros n Hn. destruct (I7 n Hn) as [H1 H2]. split; auto. intros s'. rewrite H2.
    unfold count_for, get_session. cbn [sv_sessions].
    destruct (N.eq_dec s s') as [E|E].
    + subst s'. rewrite find_session_filter_self. unfold get_session in Hss. rewrite Hss. now rewrite Hzero.
    + now rewrite find_session_filter.
Qed.

Lemma detach_inv : forall B sv s, small B -> inv B sv -> inv B (detach fx sv s).
Proof.
  intros B sv s HB I. unfold detach.
  destruct (get_session sv s) as [ss|] eqn:Hss; auto.
  assert (Hin : In ss (sv_sessions sv)) by (apply find_session_some in Hss; tauto).
  pose proof (inv_dirs_exist B sv ss I Hin) as Hdir.
  assert (Hhost : has_node (sv_tree sv) [s_host ss] = true).
  { apply has_node_spec in Hdir as [n [H1 H2]].
    destruct (inv_tree _ _ _ I) as [_ [_ Hpre]].
    destruct (Hpre n [s_host ss] [s_name ss] H1 H2) as [n' [H3 H4]]; [discriminate|].
    apply has_node_spec. eauto. }
  rewrite Hhost, Hdir.
  (* the session node and everything below it *)
  destruct (remove_subtree_spec sv s (session_dir ss) true (inv_tree _ _ _ I)) as [Ht1 Hs1]; [discriminate|].
  set (sv1 := remove_subtree sv s (session_dir ss) true) in *.
  assert (I1 : inv_x B (session_dir ss) sv1).
  { apply (inv_prune B [] (session_dir ss) sv sv1 (session_dir ss) I Ht1 Hs1).
    - intros x Hx Hp. symmetry. apply is_prefix_same_length; auto.
    - intros x _ E. discriminate. }
  (* the host node, when it has become empty *)
  match goal with |- inv B (mkServer _ (filter _ (sv_sessions (push_all ?X))) _) => set (sv2 := X) end.
  assert (I2 : inv_x B (session_dir ss) sv2 /\ map core (sv_sessions sv2) = map core (sv_sessions sv)
               /\ has_node (sv_tree sv2) (session_dir ss) = false).
  { unfold sv2. destruct (has_children (sv_tree sv1) [s_host ss]) eqn:Hch.
    - split; [exact I1|split; [exact Hs1|]]. rewrite Ht1. apply has_node_prune_self.
    - destruct (remove_subtree_spec sv1 s [s_host ss] true (inv_tree _ _ _ I1)) as [Ht2 Hs2]; [discriminate|].
      split; [|split].
      + apply (inv_prune B (session_dir ss) (session_dir ss) sv1 _ [s_host ss] I1 Ht2 Hs2); auto.
        intros x Hx Hp. destruct (inv_dirs _ _ _ I1 x Hx) as [E|E]; auto.
        exfalso. apply has_node_spec in E as [n [H1 H2]].
        apply is_prefix_spec in Hp as [r Hr]. unfold session_dir in Hr. cbn in Hr. inversion Hr; subst r.
        apply (has_children_false (sv_tree sv1) [s_host ss] n (s_name x) Hch H1). rewrite H2. unfold session_dir. cbn. congruence.
      + congruence.
      + rewrite Ht2. destruct (has_node (prune_tree (sv_tree sv1) [s_host ss]) (session_dir ss)) eqn:E; auto.
        apply has_node_prune_sub in E. rewrite Ht1, has_node_prune_self in E. discriminate. }
  destruct I2 as [I2 [Hs2 Hgone2]].
  destruct (push_all_core sv2) as [Ht3 Hs3]. set (sv3 := push_all sv2) in *.
  assert (I3 : inv_x B (session_dir ss) sv3) by (eapply inv_same_core; [split; eauto|exact I2]).
  assert (Hc3 : map core (sv_sessions sv3) = map core (sv_sessions sv)) by congruence.
  assert (Hsc : same_core sv (mkServer (sv_tree sv) (sv_sessions sv3) (sv_dirty sv3))) by (split; auto).
  pose proof (get_session_core _ _ s Hsc) as Hg. rewrite Hss in Hg.
  change (get_session (mkServer (sv_tree sv) (sv_sessions sv3) (sv_dirty sv3)) s) with (get_session sv3 s) in Hg.
  destruct (get_session sv3 s) as [ss3|] eqn:Hss3; [|contradiction].
  assert (Hsub3 : s_subs ss3 = s_subs ss) by (unfold core in Hg; congruence).
  assert (Hdir3 : session_dir ss3 = session_dir ss) by (unfold session_dir; unfold core in Hg; congruence).
  assert (Hin3 : In ss3 (sv_sessions sv3)) by (apply find_session_some in Hss3; tauto).
  destruct (inv_subs _ _ _ I3 ss3 Hin3) as [Hw3 Hn3].
  (* unmark, then forget the session *)
  pose proof (inv_remark B B (session_dir ss) sv3 s ss3 empty_matcher (s_subs ss) cleanup_delta I3 Hss3 (le_n _)
                wf_empty) as Hrem.
  assert (Irem : inv_x B (session_dir ss)
            (set_tree (upd_session sv3 s (fun x => set_subs x empty_matcher))
                      (mark_nodes fx (sv_tree sv3) (s_subs ss) s cleanup_delta))).
  { apply Hrem.
    - cbn. lia.
    - rewrite <- Hsub3. apply Hw3.
    - intros n Hn. cbn [count_matching all_entries empty_matcher m_groups flat_map filter length]. rewrite Hsub3.
      destruct (matches_node (s_subs ss) (n_path n) None 0) eqn:Em.
      + rewrite adj_clear; auto. rewrite <- Hsub3. apply (count_bound B); auto.
      + rewrite count_zero; auto. rewrite <- Hsub3. apply Hw3. }
  pose proof (inv_drop B (session_dir ss) _ s (set_subs ss3 empty_matcher) Irem) as Hdrop.
  assert (Hfin : inv_x B []
     (mkServer (mark_nodes fx (sv_tree sv3) (s_subs ss) s cleanup_delta)
               (filter (fun x => negb (N.eqb (s_id x) s)) (sv_sessions sv3)) (sv_dirty sv3))).
  { rewrite <- (filter_upd (sv_sessions sv3) s (fun x => set_subs x empty_matcher)) by reflexivity.
    apply Hdrop.
    - change (get_session (set_tree (upd_session sv3 s (fun x => set_subs x empty_matcher))
                                   (mark_nodes fx (sv_tree sv3) (s_subs ss) s cleanup_delta)) s)
        with (get_session (upd_session sv3 s (fun x => set_subs x empty_matcher)) s).
      rewrite get_session_upd by reflexivity. now rewrite N.eqb_refl, Hss3.
    - intros p. reflexivity.
    - exact Hdir3.
    - cbn [sv_tree set_tree]. rewrite mark_nodes_spec; [|apply (inv_tree _ _ _ I3)|rewrite <- Hsub3; apply Hw3].
      rewrite has_node_map; [now rewrite Ht3|].
      intros n. destruct (matches_node (s_subs ss) (n_path n) None 0); reflexivity. }
  destruct (sv_tree sv3) as [|n0 t0] eqn:Et3; [|exact Hfin].
  (* an emptied tree (Cleanup drops the shared data when the root has no child left): nothing to unmark *)
  assert (Hm : mark_nodes fx [] (s_subs ss) s cleanup_delta = []).
  { rewrite mark_nodes_spec; [reflexivity| |rewrite <- Hsub3; apply Hw3].
    split; [constructor|split; [intros n []|intros n q r []]]. }
  now rewrite Hm in Hfin.
Qed.


(* ------------------------------------------------------------------ commands *)

Fixpoint cmd_budget (c : cmd) : nat :=
  match c with
  | CSubscribe _ subs => length subs
  | CBatch l => (fix sum (l : list cmd) : nat := match l with [] => 0 | c' :: r => cmd_budget c' + sum r end) l
  | _ => 0
  end.

Lemma cmd_ind' : forall P : cmd -> Prop,
  (forall f i, P (CSetData f i)) -> (forall q k, P (CRemoveData q k)) -> (forall q k, P (CSubscribe q k)) ->
  (forall k, P (CUnsubscribe k)) -> (forall n, P (CSetMax n)) -> P CResetMax -> (forall k, P (CGetData k)) ->
  (forall l, Forall P l -> P (CBatch l)) -> forall c, P c.
Proof.
  intros P H1 H2 H3 H4 H5 H6 H7 H8. fix IH 1. intros c.
  destruct c; [apply H1|apply H2|apply H3|apply H4|apply H5|apply H6|apply H7|].
  apply H8. induction l as [|c l IHl]; constructor; [apply IH|exact IHl].
Qed.

Lemma set_data_items_inv : forall B items sv s flags, small B -> inv B sv ->
  inv B (fold_left (fun sv' it => match get_session sv' s with
                                  | Some ss' => match fst it with
                                                | [] => sv'
                                                | _ => set_data_node sv' ss' (fst it) (snd it) flags
                                                end
                                  | None => sv'
                                  end) items sv).
Proof.
  intros B. induction items as [|it items IH]; intros sv s flags HB I; cbn [fold_left]; auto.
  apply IH; auto.
  destruct (get_session sv s) as [ss|] eqn:Hss; auto.
  destruct (fst it) as [|k rel]; auto.
  unfold set_data_node. apply set_data_loop_inv; auto.
  apply (inv_dirs_exist B sv); auto. apply find_session_some in Hss. tauto.
Qed.

Lemma subscribe_fold_inv : forall subs B sv s, small (B + length subs) -> inv B sv ->
  inv (B + length subs) (fold_left (fun sv' sf => subscribe_one fx sv' s sf) subs sv).
Proof.
  induction subs as [|sf subs IH]; intros B sv s HB I; cbn [fold_left length].
  - now rewrite Nat.add_0_r.
  - replace (B + S (length subs)) with (S B + length subs) by lia.
    apply IH; [unfold small in *; cbn [length] in HB; lia|].
    apply subscribe_one_inv; auto. unfold small in *. cbn [length] in HB. lia.
Qed.

Lemma unsubscribe_fold_inv : forall subs B sv s, small B -> inv B sv ->
  inv B (fold_left (fun sv' sp => unsubscribe_one fx sv' s sp) subs sv).
Proof.
  induction subs as [|sp subs IH]; intros B sv s HB I; cbn [fold_left]; auto.
  apply IH; auto. now apply unsubscribe_one_inv.
Qed.

Lemma small_le : forall a b, a <= b -> small b -> small a.
Proof. intros a b H Hb. unfold small in *. lia. Qed.

Lemma handle_inv : forall c nest sv s B, small (B + cmd_budget c) -> inv B sv ->
  inv (B + cmd_budget c) (handle fx nest sv s c).
Proof.
  induction c using cmd_ind'; intros nest sv s B HB I; cbn [handle cmd_budget] in *;
    destruct (get_session sv s) as [ss|] eqn:Hss;
    try (rewrite Nat.add_0_r in *); auto.
  - (* CSetData *) now apply set_data_items_inv.
  - (* CRemoveData *) now apply do_remove_data_inv.
  - (* CSubscribe *) pose proof (subscribe_fold_inv k B sv s HB I) as I1.
    destruct q; auto. destruct k as [|sf k]; auto.
    eapply inv_same_core; [apply do_get_data_core|].
    destruct (fx_push fx); auto. eapply inv_same_core; [apply push_all_core|exact I1].
  - (* CSubscribe, no such session *) apply (inv_weaken B); auto. lia.
  - (* CUnsubscribe *) now apply unsubscribe_fold_inv.
  - (* CSetMax *) eapply inv_same_core; [apply upd_session_core; reflexivity|exact I].
  - (* CResetMax *) eapply inv_same_core; [apply upd_session_core; reflexivity|exact I].
  - (* CGetData *) eapply inv_same_core; [apply do_get_data_core|exact I].
  - (* CBatch *) destruct (Nat.ltb nest max_batch_nest); [|apply (inv_weaken B); auto; lia].
    clear Hss ss. revert sv B HB I. induction H as [|c l Hc Hl IHl]; intros sv B HB I.
    + now rewrite Nat.add_0_r.
    + match goal with |- inv (B + ?X) _ => set (rest := X) in * end.
      cbn [cmd_budget] in rest.
      match goal with |- context [push_all (handle fx (S nest) sv s c)] =>
        assert (I1 : inv (B + cmd_budget c) (push_all (handle fx (S nest) sv s c))) end.
      { eapply inv_same_core; [apply push_all_core|]. apply Hc; auto. eapply small_le; [|exact HB]. unfold rest. lia. }
      unfold rest. rewrite Nat.add_assoc. apply IHl; auto. now rewrite <- Nat.add_assoc.
  - (* CBatch, no such session *) apply (inv_weaken B); auto. lia.
Qed.

(* ------------------------------------------------------------------ histories *)

Definition ev_budget (ev : event) : nat := match ev with ECmd _ c => cmd_budget c | _ => 0 end.

(* the one condition on a history: a session arrives under a (host, session name) pair no attached session has
   (session ids are unique, ReflectServer hands them out from a counter) *)
Definition wf_event (sv : server) (ev : event) : Prop :=
  match ev with
  | EAttach s host nm => forall ss, In ss (sv_sessions sv) -> session_dir ss <> [host; nm]
  | _ => True
  end.

Fixpoint wf_run (sv : server) (evs : list event) : Prop :=
  match evs with
  | [] => True
  | ev :: r => wf_event sv ev /\ wf_run (step fx sv ev) r
  end.

Fixpoint run_budget (evs : list event) : nat :=
  match evs with [] => 0 | ev :: r => ev_budget ev + run_budget r end.

Lemma step_inv : forall ev sv B, small (B + ev_budget ev) -> inv B sv -> wf_event sv ev ->
  inv (B + ev_budget ev) (step fx sv ev).
Proof.
  intros [s host nm|s|s c] sv B HB I Hwf; cbn [step ev_budget] in *; try rewrite Nat.add_0_r in *.
  - destruct (get_session sv s) eqn:Hs; auto. now apply attach_inv.
  - now apply detach_inv.
  - destruct (get_session sv s); [|apply (inv_weaken B); auto; lia].
    eapply inv_same_core; [apply push_all_core|]. now apply handle_inv.
Qed.

Lemma empty_inv : inv 0 empty_server.
Proof.
  constructor; cbn.
  - split; [constructor|split; [intros n []|intros n q r []]].
  - constructor.
  - constructor.
  - intros ss [].
  - intros ss [].
  - intros n [].
  - intros n [].
Qed.

Theorem run_inv : forall evs sv B, small (B + run_budget evs) -> inv B sv -> wf_run sv evs ->
  inv (B + run_budget evs) (run fx evs sv).
Proof.
  induction evs as [|ev evs IH]; intros sv B HB I Hwf; cbn [run fold_left run_budget] in *.
  - now rewrite Nat.add_0_r.
  - destruct Hwf as [Hw1 Hw2]. rewrite Nat.add_assoc. apply IH; auto.
    + now rewrite <- Nat.add_assoc.
    + apply step_inv; auto. eapply small_le; [|exact HB]. lia.
Qed.

End ServerProofs.
