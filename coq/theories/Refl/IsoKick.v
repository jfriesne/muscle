(* Refl/IsoKick.v -- C06, as-if-never with PR_COMMAND_KICK: what a departure does to the part of the state the simulation
   relation looks at, that departures of different sessions commute there, and which sessions a kick traversal marks. *)
From Coq Require Import List NArith ZArith Bool Arith Lia Permutation.
From Muscle Require Import Refl.Base Refl.BaseProofs Refl.Tree Refl.TreeProofs Refl.Matcher Refl.MatcherProofs
     Refl.Traverse Refl.TraverseSpec Refl.TraverseProofs Refl.TraverseTheorems Refl.TraverseExit
     Refl.Session Refl.Server Refl.ServerProofs Refl.IsoModel Refl.IsoBase Refl.IsoFrame
     Refl.IsoSimBase Refl.IsoSim Refl.IsoDetach Refl.IsoHosts Refl.IsoNever.
Import ListNotations.

(* ------------------------------------------------------------------ subscriber tables: negative adjustments commute *)

Lemma tbl_adjust_neg_nil : forall a d, (d < 0)%Z -> tbl_adjust [] a d = [].
Proof.
  intros a d Hd. unfold tbl_adjust. assert (Z.eqb d 0 = false) as -> by (apply Z.eqb_neq; lia).
  assert (Z.leb 0 d = false) as -> by (apply Z.leb_gt; lia). cbn [tbl_get].
  destruct (N.leb (Z.to_N (- d)) 0); reflexivity.
Qed.

Definition neg_new (c : N) (d : Z) : N := let d' := Z.to_N (Z.opp d) in if N.leb d' c then (c - d')%N else 0%N.

Lemma tbl_adjust_neg_cons : forall k c r a d, (d < 0)%Z ->
  tbl_adjust ((k, c) :: r) a d =
  if N.eqb k a then (if N.ltb 0 (neg_new c d) then (k, neg_new c d) :: r else r) else (k, c) :: tbl_adjust r a d.
Proof.
  intros k c r a d Hd. unfold tbl_adjust. assert (Z.eqb d 0 = false) as -> by (apply Z.eqb_neq; lia).
  assert (Z.leb 0 d = false) as -> by (apply Z.leb_gt; lia). cbn [tbl_get tbl_put tbl_remove].
  destruct (N.eqb k a) eqn:E; [reflexivity|].
  match goal with |- context [if N.ltb 0 ?x then _ else _] => destruct (N.ltb 0 x) end; reflexivity.
Qed.

Lemma tbl_adjust_neg_comm : forall t a b d, a <> b -> (d < 0)%Z ->
  tbl_adjust (tbl_adjust t a d) b d = tbl_adjust (tbl_adjust t b d) a d.
Proof.
  intros t a b d Hab Hd. induction t as [|[k c] r IH].
  - now rewrite !tbl_adjust_neg_nil.
  - rewrite (tbl_adjust_neg_cons k c r a d Hd), (tbl_adjust_neg_cons k c r b d Hd).
    destruct (N.eqb k a) eqn:Ea; destruct (N.eqb k b) eqn:Eb.
    + apply N.eqb_eq in Ea, Eb. congruence.
    + destruct (N.ltb 0 (neg_new c d)) eqn:Ec.
      * rewrite !tbl_adjust_neg_cons by exact Hd. now rewrite Ea, Eb, Ec.
      * rewrite tbl_adjust_neg_cons by exact Hd. now rewrite Ea, Ec.
    + destruct (N.ltb 0 (neg_new c d)) eqn:Ec.
      * rewrite !tbl_adjust_neg_cons by exact Hd. now rewrite Ea, Eb, Ec.
      * rewrite tbl_adjust_neg_cons by exact Hd. now rewrite Eb, Ec.
    + rewrite !tbl_adjust_neg_cons by exact Hd. rewrite Ea, Eb. now rewrite IH.
Qed.

Lemma cleanup_delta_neg : (cleanup_delta < 0)%Z.
Proof. reflexivity. Qed.

Section Kick.
Context {M : MatchOps} {L : MatchLaws M}.
Variable fx : fixes.
Hypothesis guard_on : fx_guard fx = true.

(* ------------------------------------------------------------------ what a departure does below host level *)

(* the part of a state the simulation relation of Refl/IsoSim.v reads on its right-hand side *)
Definition veq (X Y : server) : Prop := body (sv_tree X) = body (sv_tree Y) /\ all_params X = all_params Y.

Lemma veq_refl : forall X, veq X X.
Proof. intros; split; reflexivity. Qed.

Lemma veq_trans : forall X Y Z, veq X Y -> veq Y Z -> veq X Z.
Proof. intros X Y Z [A1 A2] [B1 B2]. split; congruence. Qed.

Lemma rel_veq : forall s F E E', rel s F E -> veq E E' -> rel s F E'.
Proof.
  intros s F E E' [R1 R2] [V1 V2]. split.
  - unfold rel_tree in *. now rewrite <- V1.
  - unfold rel_sess in *. now rewrite <- V2.
Qed.

Definition unmark (ss : session) (n : node) : node :=
  if matches_node (s_subs ss) (n_path n) None 0 then adj_node (s_id ss) cleanup_delta n else n.

Definition off_dir (ss : session) (n : node) : bool := negb (is_prefix (session_dir ss) (n_path n)).

Definition view_without (o : option session) (l : list node) : list node :=
  match o with Some ss => map (unmark ss) (filter (off_dir ss) l) | None => l end.

Lemma unmark_path : forall ss n, n_path (unmark ss n) = n_path n.
Proof. intros. unfold unmark. destruct (matches_node _ _ _ _); reflexivity. Qed.

Lemma body_tree_without : forall t ss, wf_tree t -> body (tree_without t ss) = view_without (Some ss) (body t).
Proof.
  intros t ss W. unfold tree_without, view_without, body. cbv zeta.
  change (fun n => if matches_node (s_subs ss) (n_path n) None 0 then adj_node (s_id ss) cleanup_delta n else n) with (unmark ss).
  rewrite (filter_map_pres _ nonhost (unmark ss)) by (intros n; unfold nonhost; now rewrite unmark_path). f_equal.
  set (t1 := prune_tree t (session_dir ss)).
  assert (W1 : wf_tree t1) by now apply wf_tree_prune.
  rewrite (prune_empty_host t1) by (auto; intros; now apply (host_hidden None (s_host ss))). unfold t1, prune_tree. apply filter_comm.
Qed.

Lemma detach_body : forall B X t, inv B X ->
  body (sv_tree (detach fx X t)) = view_without (get_session X t) (body (sv_tree X)).
Proof.
  intros B X t I. destruct (get_session X t) as [ss|] eqn:Hs.
  - destruct (detach_shape fx guard_on B X t ss I Hs) as [Ht _]. rewrite Ht. apply body_tree_without. apply (inv_tree _ _ _ I).
  - unfold detach. now rewrite Hs.
Qed.

Lemma view_without_params : forall o o' l, option_map sparams o' = option_map sparams o -> view_without o' l = view_without o l.
Proof.
  intros [a|] [b|] l H; cbn [option_map] in H; try discriminate; [|reflexivity].
  assert (H' : sparams b = sparams a) by congruence. clear H. rename H' into H. apply sparams_parts in H as [H1 [H2 [H3 [H4 _]]]]. unfold view_without.
  assert (Hm : forall n, unmark b n = unmark a n) by (intros n; unfold unmark; now rewrite H1, H4).
  assert (Hf : forall n, off_dir b n = off_dir a n) by (intros n; unfold off_dir, session_dir; now rewrite H2, H3).
  rewrite (filter_ext _ _ Hf). now apply map_ext.
Qed.

Lemma get_session_params : forall X Y t, all_params X = all_params Y ->
  option_map sparams (get_session X t) = option_map sparams (get_session Y t).
Proof. intros X Y t. apply (find_session_proj _ sparams (fun c => fst (fst (fst (fst c))))). reflexivity. Qed.

Lemma detach_veq : forall B X Y t, inv B X -> inv B Y -> veq X Y -> veq (detach fx X t) (detach fx Y t).
Proof.
  intros B X Y t IX IY [V1 V2]. split.
  - rewrite (detach_body B X t IX), (detach_body B Y t IY), V1. apply view_without_params. now apply get_session_params.
  - rewrite !(detach_params fx). apply (others_params_eq t). exact V2.
Qed.

Lemma unmark_comm : forall sa sb n, s_id sa <> s_id sb -> unmark sa (unmark sb n) = unmark sb (unmark sa n).
Proof.
  intros sa sb n Hab. unfold unmark at 1 3. rewrite !unmark_path. unfold unmark.
  destruct (matches_node (s_subs sa) (n_path n) None 0), (matches_node (s_subs sb) (n_path n) None 0); try reflexivity.
  unfold adj_node. cbn [n_path n_data n_subs]. f_equal. apply tbl_adjust_neg_comm; [congruence|apply cleanup_delta_neg].
Qed.

Lemma view_without_comm : forall oa ob l,
  (forall sa sb, oa = Some sa -> ob = Some sb -> s_id sa <> s_id sb) ->
  view_without oa (view_without ob l) = view_without ob (view_without oa l).
Proof.
  intros [sa|] [sb|] l H; try reflexivity. specialize (H sa sb eq_refl eq_refl). unfold view_without.
  rewrite (filter_map_pres _ (off_dir sa) (unmark sb)) by (intros n; unfold off_dir; now rewrite unmark_path).
  rewrite (filter_map_pres _ (off_dir sb) (unmark sa)) by (intros n; unfold off_dir; now rewrite unmark_path).
  rewrite !map_map, (filter_comm _ (off_dir sa) (off_dir sb)). apply map_ext. intros n. now apply unmark_comm.
Qed.

Lemma detach_comm : forall B X a b, small B -> inv B X -> veq (detach fx (detach fx X a) b) (detach fx (detach fx X b) a).
Proof.
  intros B X a b HB I. destruct (N.eq_dec a b) as [->|Hab]; [apply veq_refl|].
  assert (Ia : inv B (detach fx X a)) by now apply detach_inv. assert (Ib : inv B (detach fx X b)) by now apply detach_inv.
  split.
  - rewrite (detach_body B _ b Ia), (detach_body B _ a Ib), (detach_body B X a I), (detach_body B X b I).
    rewrite (view_without_params (get_session X b) (get_session (detach fx X a) b)) by now apply (get_session_detach_other fx).
    rewrite (view_without_params (get_session X a) (get_session (detach fx X b) a)) by (apply (get_session_detach_other fx); congruence).
    apply view_without_comm. intros sa sb Ha Hb. apply get_session_id in Ha, Hb. congruence.
  - rewrite (detach_params fx (detach fx X a) b), (detach_params fx (detach fx X b) a).
    pose proof (others_params_eq b _ _ (detach_params fx X a)) as H1. pose proof (others_params_eq a _ _ (detach_params fx X b)) as H2.
    unfold others in H1, H2. rewrite H1, H2. f_equal. apply filter_comm.
Qed.

Definition detach_all (l : list sid) (X : server) : server := fold_left (detach fx) l X.

Lemma detach_all_inv : forall B l X, small B -> inv B X -> inv B (detach_all l X).
Proof. intros B l. induction l as [|d l IH]; intros X HB I; cbn; [exact I|]. apply IH; [exact HB|now apply detach_inv]. Qed.

Lemma detach_all_veq : forall B l X Y, small B -> inv B X -> inv B Y -> veq X Y -> veq (detach_all l X) (detach_all l Y).
Proof.
  intros B l. induction l as [|d l IH]; intros X Y HB IX IY V; cbn; [exact V|].
  apply IH; [exact HB|now apply detach_inv|now apply detach_inv|now apply (detach_veq B)].
Qed.

(* the order in which marked sessions are removed does not show *)
Lemma detach_all_perm : forall B l l', Permutation l l' -> forall X, small B -> inv B X -> veq (detach_all l X) (detach_all l' X).
Proof.
  intros B l l' P. induction P as [|x l l' P IH|x y l|l l' l'' P1 IH1 P2 IH2]; intros X HB I.
  - apply veq_refl.
  - cbn. apply IH; [exact HB|now apply detach_inv].
  - cbn. apply (detach_all_veq B); [exact HB|now apply detach_inv, detach_inv|now apply detach_inv, detach_inv|now apply (detach_comm B)].
  - eapply veq_trans; [now apply IH1|now apply IH2].
Qed.

(* ------------------------------------------------------------------ whom a kick traversal marks *)

Lemma NoDup_app_single : forall (A : Type) (l : list A) a, NoDup l -> ~ In a l -> NoDup (l ++ [a]).
Proof.
  intros A l a H Ha. induction H as [|x l Hx H IH]; cbn; [constructor; [intros []|constructor]|].
  constructor.
  - rewrite in_app_iff. cbn. intros [H1|[H1|[]]]; [contradiction|]. subst. apply Ha. now left.
  - apply IH. intros H1. apply Ha. now right.
Qed.

Definition kick_step (sv : server) (t : sid) (d : list sid) (n : node) : list sid := fst (kick_cb sv t d n).

Lemma kick_cb_cbK : forall sv t d n, kick_cb sv t d n = cbK (list sid) (kick_step sv t) d n.
Proof.
  intros sv t d n. unfold cbK, kick_step, kick_cb. destruct (owner_of sv (n_path n)) as [x|]; [|reflexivity].
  destruct (N.eqb (s_id x) t); [reflexivity|]. destruct (sid_mem (s_id x) d); reflexivity.
Qed.

(* KickClientCallback returns NODE_DEPTH_SESSIONNAME: the traversal skips to the next session node, and what it calls back on
   is Vt of Refl/TraverseExit.v *)
Lemma kick_traversal : forall sv t tr m d,
  do_traversal (kick_cb sv t) tr m [] true true d = fold_left (kick_step sv t) (Vt tr m true true (S (max_clauses m)) []) d.
Proof.
  intros sv t tr m d. unfold do_traversal. cbn [length].
  rewrite (trav_ext tr m 0 true true (list sid) (kick_cb sv t) (cbK (list sid) (kick_step sv t)) (kick_cb_cbK sv t)).
  apply trav_const_depth.
Qed.

Definition kicks (sv : server) (t : sid) (l : list node) (k : sid) : Prop :=
  exists n x, In n l /\ owner_of sv (n_path n) = Some x /\ s_id x = k /\ k <> t.

Lemma kick_fold : forall sv t l d, NoDup d ->
  NoDup (fold_left (kick_step sv t) l d) /\
  forall k, In k (fold_left (kick_step sv t) l d) <-> In k d \/ kicks sv t l k.
Proof.
  intros sv t l. induction l as [|n l IH]; intros d Hd; cbn [fold_left].
  - split; [exact Hd|]. intros k. split; [now left|]. intros [H|[n [x [[] _]]]]. exact H.
  - assert (Hs : NoDup (kick_step sv t d n) /\
                 forall k, In k (kick_step sv t d n) <-> In k d \/ exists x, owner_of sv (n_path n) = Some x /\ s_id x = k /\ k <> t).
    { unfold kick_step, kick_cb. destruct (owner_of sv (n_path n)) as [x|].
      - destruct (N.eqb (s_id x) t) eqn:Et; cbn [fst].
        + apply N.eqb_eq in Et. split; [exact Hd|]. intros k. split; [now left|]. intros [H|[y [Hy [H1 H2]]]]; [exact H|]. congruence.
        + apply N.eqb_neq in Et. destruct (sid_mem (s_id x) d) eqn:Em; cbn [fst].
          * apply sid_mem_spec in Em. split; [exact Hd|]. intros k. split; [now left|]. intros [H|[y [Hy [H1 H2]]]]; [exact H|]. congruence.
          * split.
            -- apply NoDup_app_single; [exact Hd|]. intros Hin. apply sid_mem_spec in Hin. congruence.
            -- intros k. rewrite in_app_iff. cbn [In]. split.
               ++ intros [H|[H|[]]]; [now left|]. right. exists x. subst k. now repeat split.
               ++ intros [H|[y [Hy [H1 H2]]]]; [now left|]. right. left. congruence.
      - cbn [fst]. split; [exact Hd|]. intros k. split; [now left|]. intros [H|[y [Hy _]]]; [exact H|discriminate]. }
    destruct Hs as [Hs1 Hs2]. destruct (IH _ Hs1) as [I1 I2]. split; [exact I1|]. intros k. rewrite I2, Hs2. unfold kicks. split.
    + intros [[H|[x [H1 [H2 H3]]]]|[n' [x [H0 H1]]]]; [now left| |].
      * right. exists n, x. repeat split; auto. now left.
      * right. exists n', x. split; [now right|exact H1].
    + intros [H|[n' [x [[->|H0] [H1 [H2 H3]]]]]]; [now left; left| |].
      * left. right. now exists x.
      * right. exists n', x. now repeat split.
Qed.

Lemma owner_firstn3 : forall sv p q, firstn 3 p = firstn 3 q -> owner_of sv p = owner_of sv q.
Proof.
  intros sv p q H. unfold owner_of.
  assert (Hn : owner_name p = owner_name q).
  { destruct p as [|a [|b [|c p]]], q as [|a' [|b' [|c' q]]]; cbn in H; try discriminate; try reflexivity; inversion H; reflexivity. }
  now rewrite Hn.
Qed.

(* the sessions a PR_COMMAND_KICK of session t with these keys marks *)
Definition kicked (sv : server) (keys : list (spath * option qfilter)) (t : sid) (k : sid) : Prop :=
  exists n x, In n (sv_tree sv) /\ n_path n <> [] /\ matches_node (keys_matcher keys) (n_path n) (Some (n_data n)) 0 = true /\
              owner_of sv (n_path n) = Some x /\ s_id x = k /\ k <> t.

Lemma kick_spec : forall sv keys t d, wf_tree (sv_tree sv) -> NoDup d ->
  let d' := do_traversal (kick_cb sv t) (sv_tree sv) (keys_matcher keys) [] true (fx_guard fx) d in
  NoDup d' /\ forall k, In k d' <-> In k d \/ kicked sv keys t k.
Proof.
  intros sv keys t d W Hd. cbv zeta. rewrite guard_on, kick_traversal.
  set (m := keys_matcher keys). set (fuel := S (max_clauses m)).
  destruct (kick_fold sv t (Vt (sv_tree sv) m true true fuel []) d Hd) as [H1 H2]. split; [exact H1|].
  intros k. rewrite H2.
  assert (HV : V (sv_tree sv) m 0 true true fuel [] = vlist (sv_tree sv) m [] true).
  { rewrite <- visits_vlist. symmetry. apply (visits_V (sv_tree sv) m [] true true). }
  assert (Hw : MatcherProofs.wf_groups (m_groups m)) by apply MatcherProofs.m_of_list_wf.
  split; (intros [H|H]; [now left|right]).
  - destruct H as [n [x [Hn [Ho [Hk Ht]]]]]. apply Vt_incl in Hn. rewrite HV in Hn.
    apply (vlist_spec _ _ _ _ _ W Hw) in Hn as [Hin [[r [Hr Hp]] Hm]]. cbn [app length] in *.
    exists n, x. repeat split; auto. congruence.
  - destruct H as [n [x [Hn [Hne [Hm [Ho [Hk Ht]]]]]]].
    assert (HnV : In n (V (sv_tree sv) m 0 true true fuel [])).
    { rewrite HV. apply (vlist_spec _ _ _ _ _ W Hw). split; [exact Hn|]. split; [|exact Hm]. exists (n_path n). now split. }
    destruct (Vt_covers (sv_tree sv) m true true fuel [] n) as [n' [Hn' Hf]]; [cbn; lia|exact HnV|].
    exists n', x. split; [exact Hn'|]. split; [|now split]. rewrite <- Ho. now apply owner_firstn3.
Qed.

End Kick.

(* ------------------------------------------------------------------ the same sessions are marked with and without s *)

Section KickSim.
Context {M : MatchOps} {L : MatchLaws M}.
Variable fx : fixes.
Hypothesis guard_on : fx_guard fx = true.
Variable s : sid.

(* session names (the id strings of the server) are pairwise different, and none is also the host name of a session *)
Definition names_ok (sv : server) : Prop :=
  NoDup (map (fun c : sid * name * name => snd c) (idents sv)) /\
  forall p q : sid * name * name, In p (idents sv) -> In q (idents sv) -> snd p <> snd (fst q).

Lemma names_ok_idents : forall sv sv', idents sv' = idents sv -> names_ok sv -> names_ok sv'.
Proof. intros sv sv' H. unfold names_ok. now rewrite H. Qed.

Lemma names_nodup : forall sv, names_ok sv -> NoDup (map s_name (sv_sessions sv)).
Proof. intros sv [H _]. unfold idents in H. rewrite map_map in H. exact H. Qed.

Lemma names_host : forall sv x y, names_ok sv -> In x (sv_sessions sv) -> In y (sv_sessions sv) -> s_name x <> s_host y.
Proof.
  intros sv x y [_ H] Hx Hy. apply (H (sident x) (sident y)); unfold idents; now apply in_map.
Qed.

Lemma names_unique : forall l x y, NoDup (map s_name l) -> In x l -> In y l -> s_name x = s_name y -> x = y.
Proof.
  induction l as [|a l IH]; intros x y Hnd Hx Hy Hn; [destruct Hx|]. cbn [map] in Hnd. inversion Hnd as [|? ? Ha Hnd']; subst.
  destruct Hx as [->|Hx], Hy as [->|Hy]; [reflexivity| | |now apply IH].
  - exfalso. apply Ha. rewrite Hn. now apply in_map.
  - exfalso. apply Ha. rewrite <- Hn. now apply in_map.
Qed.

Lemma find_by_name_some : forall l nm x, find_by_name l nm = Some x -> In x l /\ s_name x = nm.
Proof.
  induction l as [|a l IH]; intros nm x H; cbn [find_by_name] in H; [discriminate|].
  destruct (name_eqb (s_name a) nm) eqn:E.
  - inversion H; subst. apply name_eqb_eq in E. split; [now left|exact E].
  - destruct (IH nm x H) as [H1 H2]. split; [now right|exact H2].
Qed.

Lemma find_by_name_in : forall l x, NoDup (map s_name l) -> In x l -> find_by_name l (s_name x) = Some x.
Proof.
  induction l as [|a l IH]; intros x Hnd Hx; [destruct Hx|]. cbn [find_by_name].
  destruct (name_eqb (s_name a) (s_name x)) eqn:E.
  - apply name_eqb_eq in E. f_equal. apply (names_unique (a :: l)); [exact Hnd|now left|exact Hx|exact E].
  - destruct Hx as [->|Hx]; [now rewrite name_eqb_refl in E|]. apply IH; [|exact Hx]. cbn [map] in Hnd. now inversion Hnd.
Qed.

Lemma find_by_name_params : forall l l' nm, map sparams l' = map sparams l ->
  option_map sparams (find_by_name l' nm) = option_map sparams (find_by_name l nm).
Proof.
  induction l as [|x l IH]; intros [|y l'] nm H; try discriminate; [reflexivity|].
  apply map_sparams_cons in H as [H1 H2]. pose proof (sparams_parts _ _ H1) as [_ [_ [Hn _]]]. cbn [find_by_name]. rewrite Hn.
  destruct (name_eqb (s_name x) nm); [cbn; now f_equal|now apply IH].
Qed.

Lemma find_by_name_others : forall l nm x, find_by_name l nm = Some x -> s_id x <> s -> find_by_name (others s l) nm = Some x.
Proof.
  induction l as [|a l IH]; intros nm x H Hx; cbn [find_by_name] in H; [discriminate|]. unfold others. cbn [filter].
  destruct (name_eqb (s_name a) nm) eqn:E.
  - inversion H; subst. assert (N.eqb (s_id x) s = false) as -> by now apply N.eqb_neq. cbn [negb find_by_name]. now rewrite E.
  - destruct (negb (N.eqb (s_id a) s)); [cbn [find_by_name]; rewrite E|]; now apply IH.
Qed.

(* a host node does not lead to a session *)
Lemma host_node_no_owner : forall sv n h, hosts_ok sv -> names_ok sv -> In n (sv_tree sv) -> n_path n = [h] -> owner_of sv (n_path n) = None.
Proof.
  intros sv n h HO NO Hn Hp. rewrite Hp. unfold owner_of. cbn [owner_name].
  destruct (find_by_name (sv_sessions sv) h) as [x|] eqn:E; [|reflexivity]. exfalso.
  apply find_by_name_some in E as [Hx Hnm]. destruct (HO n Hn) as [_ [y [Hy Hh]]]; [now rewrite Hp|].
  rewrite Hp in Hh. injection Hh as Hh. apply (names_host sv x y NO Hx Hy). congruence.
Qed.

Lemma names_ok_sub : forall (l : list session) (f : session -> bool) sv sv',
  idents sv = map sident l -> idents sv' = map sident (filter f l) -> names_ok sv -> names_ok sv'.
Proof.
  intros l f sv sv' H H' [N1 N2]. unfold names_ok. rewrite H in N1, N2. rewrite H'. split.
  - rewrite map_map in *. now apply NoDup_map_filter.
  - intros p q Hp Hq. apply N2.
    + apply in_map_iff in Hp as [a [Ha1 Ha2]]. apply filter_In in Ha2 as [Ha2 _]. apply in_map_iff. now exists a.
    + apply in_map_iff in Hq as [a [Ha1 Ha2]]. apply filter_In in Ha2 as [Ha2 _]. apply in_map_iff. now exists a.
Qed.

Lemma idents_of_params : forall sv (l : list session), all_params sv = map sparams l -> idents sv = map sident l.
Proof.
  intros sv l H. unfold idents, all_params in *.
  assert (Hm : forall l0 : list session, map sident l0 = map (fun c : sid * name * name * matcher * N => fst (fst c)) (map sparams l0))
    by (intros l0; rewrite map_map; reflexivity).
  now rewrite (Hm (sv_sessions sv)), H, <- Hm.
Qed.

Lemma names_ok_erased : forall F E, rel_sess s F E -> names_ok F -> names_ok E.
Proof.
  intros F E R. apply (names_ok_sub (sv_sessions F) (fun x => negb (N.eqb (s_id x) s)) F); [reflexivity|now apply idents_of_params].
Qed.

Lemma kicked_sim : forall F E keys t k, rel s F E -> hosts_ok F -> hosts_ok E -> names_ok F -> k <> s ->
  (kicked F keys t k <-> kicked E keys t k).
Proof.
  intros F E keys t k [R1 R2] HF HE NF Hk. pose proof (names_ok_erased F E R2 NF) as NE. unfold rel_tree in R1.
  split; intros [n [x [Hn [Hne [Hm [Ho [Hid Ht]]]]]]].
  - destruct (n_path n) as [|h [|sn r]] eqn:Hp; [congruence| |].
    + rewrite <- Hp, (host_node_no_owner F n h HF NF Hn Hp) in Ho. discriminate.
    + unfold owner_of in Ho. cbn [owner_name] in Ho. pose proof (find_by_name_some _ _ _ Ho) as [Hx Hnm].
      assert (Hv : vis (sdir s F) n = true).
      { unfold vis, nonhost. rewrite Hp. cbn [length Nat.leb andb]. apply negb_true_iff. unfold sdir.
        destruct (get_session F s) as [ss|] eqn:Hs; [|reflexivity]. cbn [option_map hidden].
        destruct (is_prefix (session_dir ss) (h :: sn :: r)) eqn:E0; [|reflexivity]. exfalso.
        apply is_prefix_spec in E0 as [r' Hr']. unfold session_dir in Hr'. cbn [app] in Hr'. injection Hr' as _ Hsn _.
        apply find_session_some in Hs as [Hss Hsid].
        assert (x = ss) by (apply (names_unique (sv_sessions F)); [now apply names_nodup|exact Hx|exact Hss|congruence]). congruence. }
      assert (Hin : In (strip s n) (body (sv_tree E))) by (rewrite R1; apply in_map, filter_In; now split).
      unfold body in Hin. apply filter_In in Hin as [Hin _].
      pose proof (find_by_name_others _ _ _ Ho (ltac:(congruence) : s_id x <> s)) as Ho'.
      pose proof (find_by_name_params (others s (sv_sessions F)) (sv_sessions E) sn R2) as Hq. rewrite Ho' in Hq.
      destruct (find_by_name (sv_sessions E) sn) as [x'|] eqn:Ex; [|discriminate]. cbn [option_map] in Hq.
      assert (Hq' : sparams x' = sparams x) by congruence. apply sparams_parts in Hq' as [Hq' _].
      exists (strip s n), x'. unfold strip at 2 3 4 5. cbn [n_path n_data]. rewrite Hp. repeat split; auto; try congruence.
  - destruct (n_path n) as [|h [|sn r]] eqn:Hp; [congruence| |].
    + rewrite <- Hp, (host_node_no_owner E n h HE NE Hn Hp) in Ho. discriminate.
    + unfold owner_of in Ho. cbn [owner_name] in Ho.
      assert (Hb : In n (body (sv_tree E))) by (apply filter_In; split; [exact Hn|unfold nonhost; now rewrite Hp]).
      rewrite R1 in Hb. apply in_map_iff in Hb as [n0 [Hs0 Hn0]]. apply filter_In in Hn0 as [Hn0 _].
      pose proof (find_by_name_params (others s (sv_sessions F)) (sv_sessions E) sn R2) as Hq. rewrite Ho in Hq.
      destruct (find_by_name (others s (sv_sessions F)) sn) as [x0|] eqn:Ex; [|discriminate]. cbn [option_map] in Hq.
      assert (Hq' : sparams x = sparams x0) by congruence. apply sparams_parts in Hq' as [Hq' _].
      apply find_by_name_some in Ex as [Hx0 Hnm]. unfold others in Hx0. apply filter_In in Hx0 as [Hx0 _].
      assert (Hpn : n_path n0 = h :: sn :: r) by (rewrite <- Hp, <- Hs0; reflexivity).
      assert (Hdn : n_data n0 = n_data n) by (rewrite <- Hs0; reflexivity).
      exists n0, x0. rewrite Hpn, Hdn. repeat split; auto; try congruence.
      unfold owner_of. cbn [owner_name]. rewrite <- Hnm. apply find_by_name_in; [now apply names_nodup|exact Hx0].
Qed.

(* the sessions marked for removal on the two sides: the same ones, s apart *)
Definition duck_rel (dF dE : list sid) : Prop := NoDup dF /\ NoDup dE /\ forall k, In k dE <-> In k dF /\ k <> s.

Lemma duck_rel_nil : duck_rel [] [].
Proof. split; [constructor|]. split; [constructor|]. intros k. cbn. tauto. Qed.

(* what is known of the two runs at every step beside the relation: the server invariant on both sides, host nodes exactly
   where sessions live, session names that lead to one session *)
Definition good (B : nat) (F E : server) : Prop := inv B F /\ inv B E /\ hosts_ok F /\ hosts_ok E /\ names_ok F.

Lemma kick_ducks_sim : forall B F E keys t dF dE, good B F E -> rel s F E -> duck_rel dF dE ->
  duck_rel (do_traversal (kick_cb F t) (sv_tree F) (keys_matcher keys) [] true (fx_guard fx) dF)
           (do_traversal (kick_cb E t) (sv_tree E) (keys_matcher keys) [] true (fx_guard fx) dE).
Proof.
  intros B F E keys t dF dE (IF & IE & HF & HE & NF) R [D1 [D2 D3]].
  destruct (kick_spec fx guard_on F keys t dF (inv_tree _ _ _ IF) D1) as [F1 F2].
  destruct (kick_spec fx guard_on E keys t dE (inv_tree _ _ _ IE) D2) as [E1 E2].
  split; [exact F1|]. split; [exact E1|]. intros k. rewrite E2, F2, D3.
  (* s itself is no session of E, so E's traversal cannot mark it *)
  assert (Hs : ~ kicked E keys t s).
  { intros [n [x [_ [_ [_ [Ho [Hid _]]]]]]]. unfold owner_of in Ho. destruct (owner_name (n_path n)); [|discriminate].
    apply find_by_name_some in Ho as [Hx _]. destruct R as [_ R2]. unfold rel_sess, all_params in R2.
    assert (Hi : In (sparams x) (map sparams (others s (sv_sessions F)))) by (rewrite <- R2; now apply in_map).
    apply in_map_iff in Hi as [y [Hy1 Hy2]]. apply filter_In in Hy2 as [_ Hy2]. apply sparams_parts in Hy1 as [Hy1 _].
    apply negb_true_iff, N.eqb_neq in Hy2. congruence. }
  split.
  - intros [[H1 H2]|H]; [tauto|]. assert (Hk : k <> s) by (intros ->; contradiction).
    split; [|exact Hk]. right. now apply (kicked_sim F E keys t k R HF HE NF Hk).
  - intros [[H|H] Hk]; [tauto|]. right. now apply (kicked_sim F E keys t k R HF HE NF Hk).
Qed.

(* ------------------------------------------------------------------ ClearLameDucks on both sides *)

Lemma detach_all_sim : forall B l F E, small B -> inv B F -> inv B E -> rel s F E ->
  rel s (detach_all fx l F) (detach_all fx (filter (fun d => negb (N.eqb d s)) l) E).
Proof.
  intros B l. induction l as [|d l IH]; intros F E HB IF IE R; cbn [detach_all fold_left filter]; [exact R|].
  destruct (N.eqb d s) eqn:Ed; cbn [negb].
  - apply N.eqb_eq in Ed. subst d. apply IH; [exact HB|now apply detach_inv|exact IE|].
    destruct (get_session F s) as [ss|] eqn:Hs; [now apply (detach_self fx guard_on s B F E ss)|]. unfold detach. now rewrite Hs.
  - apply N.eqb_neq in Ed. cbn [fold_left]. apply IH; [exact HB|now apply detach_inv|now apply detach_inv|].
    now apply (detach_sim fx guard_on s B).
Qed.

Lemma sid_mem_iff : forall k l l', (In k l <-> In k l') -> sid_mem k l = sid_mem k l'.
Proof.
  intros k l l' H. destruct (sid_mem k l) eqn:A, (sid_mem k l') eqn:B; try reflexivity.
  - apply sid_mem_spec, H, sid_mem_spec in A. congruence.
  - apply sid_mem_spec, H, sid_mem_spec in B. congruence.
Qed.

Lemma ducks_perm : forall dF dE, duck_rel dF dE -> Permutation (filter (fun d => negb (N.eqb d s)) dF) dE.
Proof.
  intros dF dE [D1 [D2 D3]]. apply NoDup_Permutation; [now apply NoDup_filter|exact D2|].
  intros k. rewrite D3, filter_In, negb_true_iff, N.eqb_neq. tauto.
Qed.

Lemma sv_fold_xdetach : forall l xs, xs_sv (fold_left (fun xs' d => xdetach fx xs' d) l xs) = detach_all fx l (xs_sv xs).
Proof. induction l as [|d l IH]; intros xs; cbn [fold_left detach_all]; [reflexivity|]. now rewrite IH. Qed.

Lemma priv_fold_xdetach : forall l xs,
  xs_priv (fold_left (fun xs' d => xdetach fx xs' d) l xs) = filter (fun kb => negb (sid_mem (fst kb) l)) (xs_priv xs).
Proof.
  induction l as [|d l IH]; intros xs; cbn [fold_left].
  - cbn [sid_mem negb]. induction (xs_priv xs) as [|a r IHr]; [reflexivity|]. cbn [filter]. now rewrite <- IHr.
  - rewrite IH. cbn [xs_priv xdetach]. unfold priv_remove. rewrite <- filter_andb. apply filter_ext.
    intros kb. cbn [sid_mem]. rewrite (N.eqb_sym d (fst kb)). rewrite negb_orb. apply andb_comm.
Qed.

Lemma clear_ducks_sim : forall B XF XE, small B -> inv B (xs_sv XF) -> inv B (xs_sv XE) ->
  rel s (xs_sv XF) (xs_sv XE) -> priv_remove (xs_priv XF) s = xs_priv XE -> duck_rel (xs_ducks XF) (xs_ducks XE) ->
  rel s (xs_sv (clear_ducks fx XF)) (xs_sv (clear_ducks fx XE)) /\
  priv_remove (xs_priv (clear_ducks fx XF)) s = xs_priv (clear_ducks fx XE).
Proof.
  intros B XF XE HB IF IE R P D. unfold clear_ducks. split.
  - rewrite !sv_fold_xdetach. eapply rel_veq; [apply (detach_all_sim B); eassumption|].
    apply (detach_all_perm fx guard_on B); [now apply ducks_perm|exact HB|exact IE].
  - rewrite !priv_fold_xdetach, <- P. unfold priv_remove. rewrite (filter_comm _ _ (fun kb => negb (N.eqb (fst kb) s))).
    rewrite <- !filter_andb. apply filter_ext. intros kb. destruct (N.eqb (fst kb) s) eqn:Es; cbn [negb andb]; [reflexivity|].
    f_equal. apply N.eqb_neq in Es. apply sid_mem_iff. destruct D as [_ [_ D3]]. rewrite D3. tauto.
Qed.

End KickSim.
