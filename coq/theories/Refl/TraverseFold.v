(* Refl/TraverseFold.v -- the fold theorems about DoTraversal in the form the handlers' proofs use them:
   a traversal whose callback never asks to unwind, except by answering "skip to the session level" on nodes of a
   region it does nothing on, is a fold over the list of visited nodes [vtrav] (= [V] of Refl/TraverseProofs.v).

   Used twice: all marking / collecting callbacks (no region), and GetDataCallback, which returns
   NODE_DEPTH_SESSIONNAME on the asking session's own nodes. *)
From Coq Require Import List NArith ZArith Bool Arith Lia.
From Muscle Require Import Refl.Base Refl.Tree Refl.Matcher Refl.Traverse Refl.TraverseProofs Refl.TraverseExit.
Import ListNotations.

Section VTrav.
Context {M : MatchOps}.
Variable t : tree.
Variable m : matcher.
Variable rd : nat.
Variable uf gf : bool.

Definition vtrav : nat -> path -> list node := V t m rd uf gf.

(* What one child contributes to the visit list, written as a loop over the entries like check_entries itself
   (vcheck_entries_actions: it lists the nodes of [actions]). *)

(* the test that lets a terminal clause match call the callback *)
Definition term_ok (e : entry) (child : node) : bool :=
  (single_guard m gf && (negb uf || negb (has_filter e)))
  || matches_node m (n_path child) (if uf then Some (n_data child) else None) rd.

Definition hit_of (known : option nat) (idx : nat) (e : entry) (rel : nat) (child : node) : bool :=
  (match known with Some k => Nat.eqb idx k | None => false end)
  || cmatch (clause_at e rel) (last_name (n_path child)).

Fixpoint vcheck_entries (rec : path -> list node) (child : node) (rel : nat) (known : option nat)
         (es : list entry) (idx : nat) (matched recursed : bool) : list node :=
  match es with
  | [] => []
  | e :: es' =>
    if hit_of known idx e rel child then
      if Nat.eqb (length (e_pat e)) (S rel) then
        if matched then vcheck_entries rec child rel known es' (S idx) matched recursed
        else if term_ok e child
             then child :: (if recursed then [] else vcheck_entries rec child rel known es' (S idx) true recursed)
             else vcheck_entries rec child rel known es' (S idx) matched recursed
      else
        if recursed then vcheck_entries rec child rel known es' (S idx) matched recursed
        else rec (n_path child) ++ (if matched then [] else vcheck_entries rec child rel known es' (S idx) matched true)
    else vcheck_entries rec child rel known es' (S idx) matched recursed
  end.

Definition vcheck_child (rec : path -> list node) (child : node) (rel : nat) (known : option nat) : list node :=
  vcheck_entries rec child rel known (active m rel) 0 false false.

Lemma vcheck_entries_actions : forall rec child rel known es idx matched recursed,
  vcheck_entries rec child rel known es idx matched recursed
  = act_nodes rec child (actions m rd uf gf child rel known es idx matched recursed).
Proof.
  intros rec child rel known. induction es as [|e es IH]; intros idx matched recursed; [reflexivity|].
  cbn [vcheck_entries actions].
  change (hit child rel known e idx) with (hit_of known idx e rel child).
  change (guard_ok m rd uf gf child e) with (term_ok e child).
  destruct (hit_of known idx e rel child); [|apply IH].
  destruct (Nat.eqb (length (e_pat e)) (S rel)).
  - destruct matched; [apply IH|]. destruct (term_ok e child); [|apply IH].
    destruct recursed; [reflexivity|]. cbn [act_nodes flat_map app]. f_equal. apply IH.
  - destruct recursed; [apply IH|]. destruct matched; cbn [act_nodes flat_map]; [reflexivity|]. f_equal. apply IH.
Qed.

End VTrav.

Section Fold.
Context {M : MatchOps}.
Variable A : Type.
Variable cb : A -> node -> A * Z.
Variable g : A -> node -> A.
Variable skip : path -> bool.
Variable sd : nat.
Variable P : A -> Prop.

Variable t : tree.
Variable m : matcher.
Variable rd : nat.
Variable uf gf : bool.

Hypothesis skip_depth : forall p, skip p = true -> sd <= length p.
Hypothesis skip_ext : forall p r, skip p = true -> skip (p ++ r) = true.
Hypothesis skip_enter : forall p k, skip (p ++ [k]) = true -> skip p = false -> length p <= sd.

Hypothesis cb_go : forall acc n, P acc -> skip (n_path n) = false ->
  exists nd, cb acc n = (g acc n, nd) /\ (Z.of_nat (depth n) - 1 <= nd)%Z /\ P (g acc n).
Hypothesis cb_skip : forall acc n, P acc -> skip (n_path n) = true -> cb acc n = (acc, Z.of_nat sd).

(* [skip_step] of Refl/TraverseProofs.v written out, for callers that destruct the test *)
Definition g' (acc : A) (n : node) : A := if skip (n_path n) then acc else g acc n.

Notation vchild := (vcheck_child m rd uf gf).

Lemma vchild_skip_in : forall recV c rel known n,
  (forall n', In n' (recV (n_path c)) -> skip (n_path n') = true) ->
  skip (n_path c) = true -> In n (vchild recV c rel known) -> skip (n_path n) = true.
Proof.
  intros recV c rel known n Hr Hs H. unfold vcheck_child in H. rewrite vcheck_entries_actions in H.
  apply act_nodes_in in H as [H|H]; subst; auto.
Qed.

(* the traversal started at a node outside the region is the fold of g' over the visit list *)
Theorem trav_fold : forall fuel x acc,
  skip x = false -> P acc ->
  trav A cb t m rd uf gf fuel x acc = (fold_left g' (vtrav t m rd uf gf fuel x) acc, Z.of_nat (length x)).
Proof using skip_depth skip_ext skip_enter cb_go cb_skip.
  intros fuel x acc Hs HP. rewrite trav_R.
  now rewrite (R_fold t m rd uf gf A cb g skip sd P skip_ext skip_enter cb_go cb_skip fuel x acc Hs HP).
Qed.

End Fold.

(* whatever the callback answers, a property of the accumulator that every callback call preserves is
   preserved by the whole traversal *)
Theorem do_traversal_Q : forall {M : MatchOps} (A : Type) (cb : A -> node -> A * Z) (Q : A -> Prop) t m uf gf,
  (forall acc n, Q acc -> Q (fst (cb acc n))) ->
  forall root acc, Q acc -> Q (do_traversal cb t m root uf gf acc).
Proof. intros M A cb Q t m uf gf H root acc HQ. unfold do_traversal. now apply trav_invariant. Qed.

(* a callback that never asks to unwind (it may answer the node's depth or one less, as RemoveDataCallback does):
   the traversal is the fold over the visit list, whatever the guard *)
Theorem do_traversal_go : forall {M : MatchOps} (A : Type) (cb : A -> node -> A * Z) (g : A -> node -> A) t m root uf gf acc,
  (forall acc n, exists nd, cb acc n = (g acc n, nd) /\ (Z.of_nat (depth n) - 1 <= nd)%Z) ->
  do_traversal cb t m root uf gf acc = fold_left g (vtrav t m (length root) uf gf (S (max_clauses m)) root) acc.
Proof.
  intros M A cb g t m root uf gf acc H. unfold do_traversal.
  rewrite (trav_fold A cb g (fun _ => false) 0 (fun _ => True)); auto; try discriminate.
  intros acc0 n _ _. destruct (H acc0 n) as [nd [H1 H2]]. exists nd. auto.
Qed.

Theorem vtrav_below_root : forall {M : MatchOps} t m rd uf gf fuel x n,
  In n (vtrav t m rd uf gf fuel x) -> exists r, r <> [] /\ n_path n = x ++ r.
Proof. intros M t m rd uf gf fuel x n H. now apply V_is_below in H. Qed.
