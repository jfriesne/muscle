(* Refl/BoundedLoops.v -- C07: fuel adequacy of the recursions inside the data handlers, written on fuel in
   Refl/Bounded.v as the code writes them:
     NodeChangedAux        the "flush, then start again" recursion nests exactly once (its cap of 100 is never reached):
                           on fuel 3 it IS the structural definition of the shared model Refl/Server.v
     DataNode::RemoveChild  `while(HasChildren()) RemoveChild(first)` returns within fuel linear in the number of nodes,
                           the node is gone and none is added (it is not compared with Server.remove_subtree here)
     DoTraversalAux        recursion depth = number of clause levels: the fuel Refl/Traverse.v gives it (levels + 1, the
                           accumulator coming back unchanged when it is gone) is adequate -- below the last clause level
                           no pattern is active, the recursion stops by itself, and more fuel gives the same result
   Defines [under] / [desc] (nodes strictly below a path), the measure of the RemoveChild bound. *)
From Coq Require Import List NArith ZArith Bool Arith Lia.
From Muscle Require Import Refl.Base Refl.BaseProofs Refl.Tree Refl.TreeProofs Refl.Matcher Refl.Traverse Refl.Session
  Refl.Server Refl.Bounded Refl.BoundedProofs Refl.BoundedInv.
Import ListNotations.

Section Loops.
Context {M : MatchOps}.

(* ------------------------------------------------------------------ NodeChangedAux *)

Lemma find_session_map : forall (f : session -> session) l s,
  (forall x, s_id (f x) = s_id x) -> find_session (map f l) s = option_map f (find_session l s).
Proof.
  intros f l s Hf. induction l as [|x l IH]; cbn [map find_session].
  - reflexivity.
  - rewrite Hf. destruct (N.eqb (s_id x) s); [reflexivity|exact IH].
Qed.

Lemma s_pending_push_pending : forall x : session, s_pending (push_pending x) = None.
Proof. intros x. unfold push_pending. destruct (s_pending x) eqn:E; [reflexivity|exact E]. Qed.

(* after PushSubscriptionMessages (with the dirty flag set) nobody has a pending update *)
Lemma pending_after_push : forall sv s ss, sv_dirty sv = true -> get_session (push_all sv) s = Some ss -> s_pending ss = None.
Proof.
  intros sv s ss Hd H. unfold push_all in H. rewrite Hd in H. unfold get_session in H. cbn [sv_sessions] in H.
  rewrite find_session_map in H by apply s_id_push_pending.
  destruct (find_session (sv_sessions sv) s) as [x|]; cbn [option_map] in H; [|discriminate].
  inversion H. apply s_pending_push_pending.
Qed.

Lemma nca_flush_idem : forall sv1 s, sv_dirty sv1 = true -> nca_flush (nca_flush sv1 s) s = nca_flush sv1 s.
Proof.
  intros sv1 s Hd. unfold nca_flush at 2 3.
  destruct (get_session sv1 s) as [ss1|] eqn:Hs; [|unfold nca_flush; rewrite Hs; reflexivity].
  destruct (s_pending ss1) as [pd|] eqn:Hp; [|unfold nca_flush; rewrite Hs, Hp; reflexivity].
  destruct (N.leb (s_max ss1) (di_num_names pd)) eqn:Hle; [|unfold nca_flush; rewrite Hs, Hp, Hle; reflexivity].
  unfold nca_flush. destruct (get_session (push_all sv1) s) as [ss2|] eqn:Hs2; [|reflexivity].
  rewrite (pending_after_push sv1 s ss2 Hd Hs2). reflexivity.
Qed.

Lemma nca_max_nest_pos : 0 < max_nca_nest.
Proof. vm_compute. lia. Qed.

(* the tail of NodeChangedAux as [nca_rec] writes it, its push on fuel *)
Lemma nca_flush_fuel : forall fuel sv1 s, 2 <= fuel ->
  match get_session sv1 s with
  | Some ss1 => match s_pending ss1 with
                | Some pd => if N.leb (s_max ss1) (di_num_names pd) then push_loop fuel sv1 else Some sv1
                | None => Some sv1
                end
  | None => Some sv1
  end = Some (nca_flush sv1 s).
Proof.
  intros fuel sv1 s Hf. unfold nca_flush. destruct (get_session sv1 s) as [ss1|]; [|reflexivity].
  destruct (s_pending ss1) as [pd|]; [|reflexivity].
  destruct (N.leb (s_max ss1) (di_num_names pd)); [|reflexivity]. apply push_loop_spec. exact Hf.
Qed.

(* the second round of NodeChangedAux: it starts without a pending Message, so it cannot ask for a third *)
Lemma nca_rec_fresh : forall fuel nest sv s p d,
  2 <= fuel ->
  (forall ss, get_session sv s = Some ss -> s_pending ss = None) ->
  nca_rec fuel nest sv s p d true =
  Some (match get_session sv s with
        | None => sv
        | Some _ => nca_flush (set_dirty (upd_session sv s (fun x => set_pending x (Some (di_add_removed empty_di p)))) true) s
        end).
Proof.
  intros fuel nest sv s p d Hf Hnone. destruct fuel as [|f]; [lia|]. cbn [nca_rec].
  destruct (get_session sv s) as [ss|] eqn:Hs; [|reflexivity].
  unfold pending_or_new. rewrite (Hnone ss eq_refl). cbn [di_has_set empty_di di_sets sets_has].
  apply nca_flush_fuel. exact Hf.
Qed.

(* NodeChangedAux on fuel, with its nest counter, is the structural definition of Server.v: the cap is never reached *)
Lemma nca_rec_spec : forall fuel nest sv s p d removed,
  3 <= fuel -> nest < max_nca_nest ->
  nca_rec fuel nest sv s p d removed = Some (node_changed_aux sv s p d removed).
Proof.
  intros fuel nest sv s p d removed Hf Hn. destruct fuel as [|f]; [lia|]. cbn [nca_rec]. rewrite node_changed_aux_flush.
  destruct (get_session sv s) as [ss|] eqn:Hs; [|reflexivity].
  unfold nca_prep. cbv zeta.
  destruct removed; [destruct (di_has_set (pending_or_new ss) p)|]; try (apply nca_flush_fuel; lia).
  rewrite push_loop_spec by lia.
  apply Nat.ltb_lt in Hn. rewrite Hn.
  set (sv0 := set_dirty (upd_session sv s (fun x => set_pending x (Some (pending_or_new ss)))) true).
  rewrite (nca_rec_fresh f (S nest) (push_all sv0) s p d ltac:(lia) (fun ss' H => pending_after_push sv0 s ss' eq_refl H)).
  assert (Hs0 : exists ss', get_session (push_all sv0) s = Some ss').
  { apply get_session_ids. rewrite ids_push_all. subst sv0. rewrite ids_set_dirty.
    rewrite ids_upd_session by (intros; reflexivity). apply get_session_ids. eexists. exact Hs. }
  destruct Hs0 as [ss' Hs0]. rewrite Hs0.
  rewrite nca_flush_fuel by lia. f_equal. apply nca_flush_idem. reflexivity.
Qed.

(* ------------------------------------------------------------------ DataNode::RemoveChild *)

(* q lies strictly below p *)
Definition under (p q : path) : bool :=
  match strip_prefix p q with Some (_ :: _) => true | _ => false end.

Lemma under_spec : forall p q, under p q = true <-> exists x r, q = p ++ x :: r.
Proof.
  intros p q. unfold under. destruct (strip_prefix p q) as [[|x r]|] eqn:E.
  - split; [discriminate|]. intros [x [r H]]. apply strip_prefix_spec in E. rewrite app_nil_r in E. subst q.
    apply (f_equal (@length name)) in H. rewrite app_length in H. simpl in H. lia.
  - split; [|reflexivity]. intros _. exists x, r. apply strip_prefix_spec. exact E.
  - split; [discriminate|]. intros [x [r H]]. apply strip_prefix_spec in H. rewrite H in E. discriminate.
Qed.

Lemma under_not_self : forall q, under q q = false.
Proof.
  intros q. destruct (under q q) eqn:E; [|reflexivity]. apply under_spec in E. destruct E as [x [r E]].
  apply (f_equal (@length name)) in E. rewrite app_length in E. simpl in E. lia.
Qed.

Lemma under_trans : forall p q r, under p q = true -> under q r = true -> under p r = true.
Proof.
  intros p q r H1 H2. apply under_spec in H1. apply under_spec in H2. destruct H1 as [x [a H1]]. destruct H2 as [y [b H2]].
  apply under_spec. exists x, (a ++ y :: b). rewrite H2, H1, <- app_assoc. reflexivity.
Qed.

(* number of nodes strictly below p *)
Definition desc (t : tree) (p : path) : nat := length (filter (fun n => under p (n_path n)) t).

Lemma filter_length_le : forall (A : Type) (f g : A -> bool) (l : list A),
  (forall x, f x = true -> g x = true) -> length (filter f l) <= length (filter g l).
Proof.
  intros A f g l H. induction l as [|a l IH]; cbn [filter]; [lia|].
  destruct (f a) eqn:Ef.
  - rewrite (H a Ef). simpl. lia.
  - destruct (g a); simpl; lia.
Qed.

Lemma filter_length_lt : forall (A : Type) (f g : A -> bool) (l : list A) (a : A),
  (forall x, f x = true -> g x = true) -> In a l -> g a = true -> f a = false ->
  length (filter f l) < length (filter g l).
Proof.
  intros A f g l a H. induction l as [|b l IH]; intros Hin Hg Hf; cbn [filter]; [contradiction|].
  destruct Hin as [->|Hin].
  - rewrite Hf, Hg. simpl. pose proof (filter_length_le A f g l H). lia.
  - specialize (IH Hin Hg Hf). destruct (f b) eqn:Efb.
    + rewrite (H b Efb). simpl. lia.
    + destruct (g b); simpl; lia.
Qed.

Lemma filter_filter : forall (A : Type) (f g : A -> bool) (l : list A),
  filter f (filter g l) = filter (fun x => g x && f x) l.
Proof.
  intros A f g l. induction l as [|a l IH]; cbn [filter]; [reflexivity|].
  destruct (g a); cbn [filter andb]; [destruct (f a); rewrite IH; reflexivity|exact IH].
Qed.

Lemma filter_true : forall (A : Type) (l : list A), filter (fun _ => true) l = l.
Proof. intros A l. induction l as [|a l IH]; cbn [filter]; [reflexivity|rewrite IH; reflexivity]. Qed.

Lemma filter_length : forall (A : Type) (f : A -> bool) (l : list A), length (filter f l) <= length l.
Proof. intros A f l. rewrite <- (filter_true A l) at 2. apply filter_length_le. reflexivity. Qed.

Lemma desc_below : forall t p c, In c t -> under p (n_path c) = true -> desc t (n_path c) < desc t p.
Proof.
  intros t p c Hin Hu. unfold desc.
  apply (filter_length_lt node _ _ t c); [|exact Hin|exact Hu|apply under_not_self].
  intros x Hx. exact (under_trans _ _ _ Hu Hx).
Qed.

Lemma desc_filter : forall t p c g, In c t -> under p (n_path c) = true -> g c = false -> desc (filter g t) p < desc t p.
Proof.
  intros t p c g Hin Hu Hg. unfold desc. rewrite filter_filter.
  apply (filter_length_lt node _ _ t c); [|exact Hin|exact Hu|cbv beta; rewrite Hg; reflexivity].
  intros x Hx. apply andb_true_iff in Hx. apply Hx.
Qed.

Section RemoveRec.
Variable leave : server -> path -> server.
Hypothesis leave_tree : forall sv q, sv_tree (leave sv q) = remove_node (sv_tree sv) q.

Lemma remove_rec_S : forall f sv p,
  remove_rec leave (S f) sv p = match drain_kids leave f sv p with None => None | Some sv1 => Some (leave sv1 p) end.
Proof. reflexivity. Qed.

Lemma drain_kids_S : forall f sv p,
  drain_kids leave (S f) sv p =
  match children (sv_tree sv) p with
  | [] => Some sv
  | c :: _ => match remove_rec leave f sv (n_path c) with None => None | Some sv1 => drain_kids leave f sv1 p end
  end.
Proof. reflexivity. Qed.

(* every call removes the first child with everything below it (two units of fuel per node: one for the `while`
   iteration, one for the call), so induction on the fuel with "twice the nodes below p" to spend *)
Lemma remove_rec_fuel_aux : forall fuel,
  (forall sv p, 2 * desc (sv_tree sv) p + 1 <= fuel ->
     exists sv' g, drain_kids leave fuel sv p = Some sv' /\ sv_tree sv' = filter g (sv_tree sv)) /\
  (forall sv p, 2 * desc (sv_tree sv) p + 2 <= fuel ->
     exists sv' g, remove_rec leave fuel sv p = Some sv' /\ sv_tree sv' = filter g (sv_tree sv) /\
                   (forall n, n_path n = p -> g n = false)).
Proof.
  induction fuel as [|f [IHD IHR]]; [split; intros; lia|]. split; intros sv p Hf.
  - rewrite drain_kids_S. destruct (children (sv_tree sv) p) as [|c cs] eqn:Hc.
    + exists sv, (fun _ => true). split; [reflexivity|]. rewrite filter_true. reflexivity.
    + assert (Hin : In c (children (sv_tree sv) p)) by (rewrite Hc; left; reflexivity).
      apply children_in in Hin. destruct Hin as [Hin [k Hk]].
      assert (Hu : under p (n_path c) = true) by (apply under_spec; exists k, []; exact Hk).
      pose proof (desc_below _ _ _ Hin Hu) as Hdc.
      destruct (IHR sv (n_path c) ltac:(lia)) as [sv1 [g1 [H1 [Ht1 Hg1]]]]. rewrite H1.
      pose proof (desc_filter _ _ _ g1 Hin Hu (Hg1 c eq_refl)) as Hd1. rewrite <- Ht1 in Hd1.
      destruct (IHD sv1 p ltac:(lia)) as [sv2 [g2 [H2 Ht2]]].
      exists sv2, (fun x => g1 x && g2 x). split; [exact H2|]. rewrite Ht2, Ht1. apply filter_filter.
  - rewrite remove_rec_S. destruct (IHD sv p ltac:(lia)) as [sv1 [g1 [H1 Ht1]]]. rewrite H1.
    exists (leave sv1 p), (fun n => g1 n && negb (path_eqb (n_path n) p)). split; [reflexivity|]. split.
    + rewrite leave_tree, Ht1. unfold remove_node. apply filter_filter.
    + intros n Hn. rewrite (proj2 (path_eqb_eq _ _) Hn). apply andb_false_r.
Qed.

(* RemoveChild(recurse) returns within fuel linear in the number of nodes, only drops nodes, and drops the node it was given *)
Lemma remove_rec_fuel : forall sv p fuel,
  2 * length (sv_tree sv) + 2 <= fuel ->
  exists sv' g, remove_rec leave fuel sv p = Some sv' /\ sv_tree sv' = filter g (sv_tree sv) /\
                (forall n, n_path n = p -> g n = false).
Proof.
  intros sv p fuel Hf. apply remove_rec_fuel_aux.
  pose proof (filter_length node (fun n => under p (n_path n)) (sv_tree sv)). unfold desc. lia.
Qed.

End RemoveRec.

Lemma leave_node_tree : forall by_ notify sv q,
  sv_tree (leave_node by_ notify sv q) = remove_node (sv_tree sv) q.
Proof.
  intros by_ notify sv q. unfold leave_node.
  destruct (find_node (sv_tree sv) q) as [n|] eqn:Hf.
  - cbn [set_tree sv_tree]. destruct notify; [rewrite tree_notify_changed|]; reflexivity.
  - symmetry. apply remove_node_absent. exact Hf.
Qed.

(* DataNode::RemoveChild(key, notify, recurse) as Server.v notifies and unlinks: returns within fuel 2*|tree|+2, the
   node is gone afterwards and no node was added *)
Lemma remove_child_fuel : forall by_ notify sv p fuel,
  2 * length (sv_tree sv) + 2 <= fuel ->
  exists sv', remove_rec (leave_node by_ notify) fuel sv p = Some sv' /\
              find_node (sv_tree sv') p = None /\ length (sv_tree sv') <= length (sv_tree sv).
Proof.
  intros by_ notify sv p fuel Hf.
  destruct (remove_rec_fuel (leave_node by_ notify) (leave_node_tree by_ notify) sv p fuel Hf) as [sv' [g [H1 [Ht Hg]]]].
  exists sv'. rewrite Ht. split; [exact H1|]. split; [|apply filter_length].
  apply find_node_none. intros n Hn Hp. apply filter_In in Hn. rewrite (Hg n Hp) in Hn. destruct Hn; discriminate.
Qed.

End Loops.

Section TravFuel.
Context {M : MatchOps}.
Variable A : Type.
Variable cb : A -> node -> A * Z.
Variable t : tree.
Variable m : matcher.
Variable rd : nat.
Variable uf gf : bool.

(* ------------------------------------------------------------------ the recursion is only ever entered for children *)

Lemma check_entries_ext : forall (rec1 rec2 : path -> A -> A * Z) (child : node),
  (forall acc, rec1 (n_path child) acc = rec2 (n_path child) acc) ->
  forall es rel known idx matched recursed acc,
  check_entries A cb m rd uf gf rec1 child rel known es idx matched recursed acc =
  check_entries A cb m rd uf gf rec2 child rel known es idx matched recursed acc.
Proof.
  intros rec1 rec2 child H es. induction es as [|e es IH]; intros rel known idx matched recursed acc; cbn [check_entries].
  - reflexivity.
  - cbv zeta. outer_if; [|apply IH].
    outer_if.
    + destruct matched; [apply IH|].
      outer_if; [|apply IH].
      destruct (cb acc child) as [acc1 nd].
      outer_if; [reflexivity|]. destruct recursed; [reflexivity|apply IH].
    + destruct recursed; [apply IH|].
      rewrite H. destruct (rec2 (n_path child) acc) as [acc1 nd].
      outer_if; [reflexivity|]. destruct matched; [reflexivity|apply IH].
Qed.

Lemma iter_children_ext : forall (rec1 rec2 : path -> A -> A * Z) (cs : list node),
  (forall c, In c cs -> forall acc, rec1 (n_path c) acc = rec2 (n_path c) acc) ->
  forall rel acc,
  iter_children A cb m rd uf gf rec1 rel cs acc = iter_children A cb m rd uf gf rec2 rel cs acc.
Proof.
  intros rec1 rec2 cs. induction cs as [|c cs IH]; intros H rel acc; cbn [iter_children].
  - reflexivity.
  - unfold check_child. rewrite (check_entries_ext rec1 rec2 c (H c (or_introl eq_refl))).
    destruct (check_entries A cb m rd uf gf rec2 c rel None (active m rel) 0 false false acc) as [acc1 [d|]].
    + reflexivity.
    + apply IH. intros c' Hc'. apply H. right. exact Hc'.
Qed.

Lemma lookup_keys_ext : forall (rec1 rec2 : path -> A -> A * Z) (x : path),
  (forall k c, get_child t x k = Some c -> forall acc, rec1 (n_path c) acc = rec2 (n_path c) acc) ->
  forall ks rel idx did acc,
  lookup_keys A cb t m rd uf gf rec1 x rel idx ks did acc = lookup_keys A cb t m rd uf gf rec2 x rel idx ks did acc.
Proof.
  intros rec1 rec2 x H ks. induction ks as [|k ks IH]; intros rel idx did acc; cbn [lookup_keys].
  - reflexivity.
  - destruct (get_child t x k) as [c|] eqn:Hc; [|apply IH].
    outer_if; [apply IH|].
    unfold check_child. rewrite (check_entries_ext rec1 rec2 c (H k c Hc)).
    destruct (check_entries A cb m rd uf gf rec2 c rel (Some idx) (active m rel) 0 false false acc) as [acc1 [d|]].
    + reflexivity.
    + apply IH.
Qed.

Lemma lookup_entries_ext : forall (rec1 rec2 : path -> A -> A * Z) (x : path),
  (forall k c, get_child t x k = Some c -> forall acc, rec1 (n_path c) acc = rec2 (n_path c) acc) ->
  forall es rel idx did acc,
  lookup_entries A cb t m rd uf gf rec1 x rel es idx did acc = lookup_entries A cb t m rd uf gf rec2 x rel es idx did acc.
Proof.
  intros rec1 rec2 x H es. induction es as [|e es IH]; intros rel idx did acc; cbn [lookup_entries].
  - reflexivity.
  - cbv zeta. rewrite (lookup_keys_ext rec1 rec2 x H).
    match goal with |- context [lookup_keys A cb t m rd uf gf rec2 x rel idx ?ks did acc] =>
      destruct (lookup_keys A cb t m rd uf gf rec2 x rel idx ks did acc) as [[acc1 did1] [d|]] end.
    + reflexivity.
    + apply IH.
Qed.

(* ------------------------------------------------------------------ below the last clause level nothing is active *)

Lemma active_nil : forall rel, max_clauses m <= rel -> active m rel = [].
Proof.
  intros rel. unfold active, max_clauses. induction (m_groups m) as [|g gs IH]; cbn [flat_map fold_right]; intros H.
  - reflexivity.
  - assert (Hg : Nat.ltb rel (fst g) = false) by (apply Nat.ltb_ge; lia).
    rewrite Hg. cbn [app]. apply IH. lia.
Qed.

Lemma children_length : forall x c, In c (children t x) -> length (n_path c) = S (length x).
Proof.
  intros x c Hin. apply children_in in Hin. destruct Hin as [_ [k Hk]]. rewrite Hk, app_length. simpl. lia.
Qed.

Lemma get_child_length : forall x k c, get_child t x k = Some c -> length (n_path c) = S (length x).
Proof.
  intros x k c H. rewrite (get_child_path _ _ _ _ H), app_length. simpl. lia.
Qed.

(* ------------------------------------------------------------------ fuel beyond the remaining clause levels changes nothing *)

Lemma trav_stable : forall k fuel1 fuel2 x acc,
  rd <= length x -> max_clauses m - (length x - rd) <= k -> k <= fuel1 -> k <= fuel2 ->
  trav A cb t m rd uf gf fuel1 x acc = trav A cb t m rd uf gf fuel2 x acc.
Proof.
  induction k as [|k IH]; intros fuel1 fuel2 x acc Hrd Hk H1 H2.
  - (* no pattern has a clause at this level: both sides return the accumulator *)
    assert (Hnil : active m (length x - rd) = []) by (apply active_nil; lia).
    assert (Hres : forall fuel, trav A cb t m rd uf gf fuel x acc = (acc, Z.of_nat (length x))).
    { intros [|f]; cbn [trav]; [reflexivity|]. cbv zeta. rewrite Hnil. reflexivity. }
    rewrite !Hres. reflexivity.
  - destruct fuel1 as [|f1]; [lia|]. destruct fuel2 as [|f2]; [lia|]. cbn [trav]. cbv zeta.
    assert (Hrec : forall c, length (n_path c) = S (length x) ->
                   forall acc0, trav A cb t m rd uf gf f1 (n_path c) acc0 = trav A cb t m rd uf gf f2 (n_path c) acc0).
    { intros c Hc acc0. apply IH; lia. }
    outer_if.
    + rewrite (iter_children_ext (trav A cb t m rd uf gf f1) (trav A cb t m rd uf gf f2) (children t x)).
      * reflexivity.
      * intros c Hc. apply Hrec. apply children_length. exact Hc.
    + rewrite (lookup_entries_ext (trav A cb t m rd uf gf f1) (trav A cb t m rd uf gf f2) x).
      * reflexivity.
      * intros k0 c Hc. apply Hrec. apply (get_child_length x k0). exact Hc.
Qed.

End TravFuel.

(* DoTraversal's own fuel (number of clause levels + 1) is adequate: more fuel never changes the result *)
Lemma do_traversal_fuel : forall {M : MatchOps} (A : Type) (cb : A -> node -> A * Z) t m root uf gf acc extra,
  do_traversal cb t m root uf gf acc =
  fst (trav A cb t m (length root) uf gf (S (max_clauses m) + extra) root acc).
Proof.
  intros M A cb t m root uf gf acc extra. unfold do_traversal. f_equal.
  apply (trav_stable A cb t m (length root) uf gf (S (max_clauses m))); lia.
Qed.
