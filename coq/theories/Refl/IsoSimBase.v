(* Refl/IsoSimBase.v -- C06, as-if-never, the vocabulary: the relation between a tree in which session s lives (the "full"
   run) and the tree of the run from which s's events were erased, and how the tree primitives of Refl/Tree.v and the
   traversals of Refl/Traverse.v respect it.

   [body t]: the nodes below host level, in list (= creation = child iteration) order.  Host nodes are left out of the
   relation on purpose: whether and where a host node exists is determined by the sessions (it is there iff a session lives
   on that host), and the erased run may create a host node later than the full run did.
   [rel_tree s od tF tE]: the body of tE is, node for node and in the same order, the body of tF without the nodes at or below
   s's directory [od] (if s is attached) and without s's marks in the subscriber tables. *)
From Coq Require Import List NArith ZArith Bool Arith Lia.
From Muscle Require Import Refl.Base Refl.BaseProofs Refl.Tree Refl.TreeProofs Refl.Matcher Refl.Traverse Refl.IsoBase Refl.IsoTrav.
Import ListNotations.

Definition nonhost (n : node) : bool := Nat.leb 2 (length (n_path n)).
Definition body (t : tree) : tree := filter nonhost t.

Definition hidden (od : option path) (p : path) : bool :=
  match od with Some d => is_prefix d p | None => false end.

Definition vis (od : option path) (n : node) : bool := nonhost n && negb (hidden od (n_path n)).

Definition rel_tree (s : sid) (od : option path) (tF tE : tree) : Prop :=
  body tE = map (strip s) (filter (vis od) tF).

(* ------------------------------------------------------------------ subscriber tables: s's entry commutes with everybody else's *)

Lemma tbl_get_without : forall tb s k, k <> s -> tbl_get (tbl_without s tb) k = tbl_get tb k.
Proof.
  unfold tbl_without. induction tb as [|[k0 c0] r IH]; intros s k Hk; cbn; [reflexivity|].
  destruct (N.eqb k0 s) eqn:E; cbn.
  - apply N.eqb_eq in E. subst k0. destruct (N.eqb s k) eqn:E2; [apply N.eqb_eq in E2; congruence|]. now apply IH.
  - destruct (N.eqb k0 k); [reflexivity|now apply IH].
Qed.

Lemma tbl_without_put_other : forall tb s k c, k <> s -> tbl_without s (tbl_put tb k c) = tbl_put (tbl_without s tb) k c.
Proof.
  unfold tbl_without. induction tb as [|[k0 c0] r IH]; intros s k c Hk; cbn.
  - assert (N.eqb k s = false) as -> by now apply N.eqb_neq. reflexivity.
  - destruct (N.eqb k0 k) eqn:E; cbn.
    + apply N.eqb_eq in E. subst k0. assert (N.eqb k s = false) as -> by now apply N.eqb_neq. cbn. now rewrite N.eqb_refl.
    + destruct (N.eqb k0 s); cbn; [now apply IH|]. rewrite E. now rewrite IH.
Qed.

Lemma tbl_without_remove_other : forall tb s k, k <> s -> tbl_without s (tbl_remove tb k) = tbl_remove (tbl_without s tb) k.
Proof.
  unfold tbl_without. induction tb as [|[k0 c0] r IH]; intros s k Hk; cbn; [reflexivity|].
  destruct (N.eqb k0 k) eqn:E; cbn.
  - apply N.eqb_eq in E. subst k0. assert (N.eqb k s = false) as -> by now apply N.eqb_neq. cbn. now rewrite N.eqb_refl.
  - destruct (N.eqb k0 s); cbn; [now apply IH|]. rewrite E. now rewrite IH.
Qed.

Lemma tbl_without_adjust_other : forall tb s k d, k <> s -> tbl_without s (tbl_adjust tb k d) = tbl_adjust (tbl_without s tb) k d.
Proof.
  intros tb s k d Hk. unfold tbl_adjust. destruct (Z.eqb d 0); [reflexivity|].
  rewrite (tbl_get_without tb s k Hk).
  match goal with |- context [if N.ltb 0 ?x then _ else _] => destruct (N.ltb 0 x) end.
  - now apply tbl_without_put_other.
  - now apply tbl_without_remove_other.
Qed.

Lemma tbl_without_idem : forall tb s, tbl_without s (tbl_without s tb) = tbl_without s tb.
Proof.
  unfold tbl_without. induction tb as [|[k c] r IH]; intros s; cbn; [reflexivity|].
  destruct (N.eqb k s) eqn:E; cbn; [apply IH|]. rewrite E. cbn. now rewrite IH.
Qed.

Lemma tbl_without_absent : forall tb s, ~ In s (map fst tb) -> tbl_without s tb = tb.
Proof.
  unfold tbl_without. induction tb as [|[k c] r IH]; intros s H; cbn; [reflexivity|].
  destruct (N.eqb k s) eqn:E.
  - apply N.eqb_eq in E. subst. exfalso. apply H. now left.
  - cbn. f_equal. apply IH. intros Hin. apply H. now right.
Qed.

(* ------------------------------------------------------------------ nodes *)

Lemma strip_path : forall s n, n_path (strip s n) = n_path n.
Proof. reflexivity. Qed.

Lemma strip_data : forall s n, n_data (strip s n) = n_data n.
Proof. reflexivity. Qed.

Lemma strip_idem : forall s n, strip s (strip s n) = strip s n.
Proof. intros. unfold strip. cbn [n_path n_data n_subs]. now rewrite tbl_without_idem. Qed.

Lemma nonhost_strip : forall s n, nonhost (strip s n) = nonhost n.
Proof. reflexivity. Qed.

(* ------------------------------------------------------------------ lookup *)

Lemma find_node_filter : forall (f : node -> bool) t p,
  (forall n, n_path n = p -> f n = true) -> find_node (filter f t) p = find_node t p.
Proof.
  intros f t p Hf. induction t as [|n r IH]; cbn; [reflexivity|].
  destruct (path_eqb (n_path n) p) eqn:E.
  - apply path_eqb_eq in E. rewrite (Hf n E). cbn. apply path_eqb_eq in E. now rewrite E.
  - destruct (f n); cbn; [rewrite E|]; exact IH.
Qed.

Lemma find_node_map_strip : forall s t p, find_node (map (strip s) t) p = option_map (strip s) (find_node t p).
Proof.
  intros s t p. induction t as [|n r IH]; cbn; [reflexivity|]. destruct (path_eqb (n_path n) p); [reflexivity|exact IH].
Qed.

(* a visible path below host level is looked up alike on both sides *)
Lemma rel_find : forall s od tF tE p, rel_tree s od tF tE -> 2 <= length p -> hidden od p = false ->
  find_node tE p = option_map (strip s) (find_node tF p).
Proof.
  intros s od tF tE p R Hl Hh.
  rewrite <- (find_node_filter nonhost tE p).
  - fold (body tE). rewrite R, find_node_map_strip. f_equal. apply find_node_filter.
    intros n Hn. unfold vis, nonhost. rewrite Hn, Hh. apply Nat.leb_le in Hl. now rewrite Hl.
  - intros n Hn. unfold nonhost. rewrite Hn. now apply Nat.leb_le.
Qed.

Lemma rel_has_node : forall s od tF tE p, rel_tree s od tF tE -> 2 <= length p -> hidden od p = false ->
  has_node tE p = has_node tF p.
Proof.
  intros s od tF tE p R Hl Hh. unfold has_node. rewrite (rel_find s od tF tE p R Hl Hh). destruct (find_node tF p); reflexivity.
Qed.

(* ------------------------------------------------------------------ updates *)

Lemma body_app : forall a b, body (a ++ b) = body a ++ body b.
Proof. intros. unfold body. apply filter_app. Qed.

(* a visible node below host level is appended on both sides *)
Lemma rel_add : forall s od tF tE nF nE, rel_tree s od tF tE -> nE = strip s nF -> vis od nF = true ->
  rel_tree s od (add_node tF nF) (add_node tE nE).
Proof.
  intros s od tF tE nF nE R HE Hv. unfold rel_tree, add_node in *. rewrite body_app, filter_app, map_app, R. f_equal.
  assert (Hn : nonhost nF = true) by (unfold vis in Hv; apply andb_true_iff in Hv; tauto).
  unfold body. cbn [filter]. rewrite Hv. subst nE. rewrite nonhost_strip, Hn. reflexivity.
Qed.

(* the same path-preserving rewriting of the nodes on both sides, commuting with the erasure *)
Lemma rel_map : forall s od tF tE (gF gE : node -> node), rel_tree s od tF tE ->
  (forall n, n_path (gF n) = n_path n) -> (forall n, n_path (gE n) = n_path n) ->
  (forall n, strip s (gF n) = gE (strip s n)) ->
  rel_tree s od (map gF tF) (map gE tE).
Proof.
  intros s od tF tE gF gE R HF HE Hc. unfold rel_tree in *. unfold body in *.
  rewrite (filter_map_pres _ nonhost gE) by (intros n; unfold nonhost; now rewrite HE).
  rewrite (filter_map_pres _ (vis od) gF) by (intros n; unfold vis, nonhost; now rewrite HF).
  rewrite R, !map_map. apply map_ext. intros n. symmetry. apply Hc.
Qed.

(* the same nodes filtered away on both sides (by a test on the path) *)
Lemma rel_filter : forall s od tF tE (keep : path -> bool), rel_tree s od tF tE ->
  rel_tree s od (filter (fun n => keep (n_path n)) tF) (filter (fun n => keep (n_path n)) tE).
Proof.
  intros s od tF tE keep R. unfold rel_tree, body in *.
  rewrite filter_comm, R.
  rewrite (filter_map_pres _ (fun n => keep (n_path n)) (strip s)) by reflexivity.
  now rewrite (filter_comm _ (vis od)).
Qed.

Lemma rel_prune : forall s od tF tE p, rel_tree s od tF tE -> rel_tree s od (prune_tree tF p) (prune_tree tE p).
Proof. intros. unfold prune_tree. now apply (rel_filter s od tF tE (fun q => negb (is_prefix p q))). Qed.

Lemma rel_set_data : forall s od tF tE p d, rel_tree s od tF tE -> rel_tree s od (set_data tF p d) (set_data tE p d).
Proof.
  intros s od tF tE p d R. unfold set_data, map_node. apply rel_map; [exact R| | |].
  - intros n. destruct (path_eqb (n_path n) p); reflexivity.
  - intros n. destruct (path_eqb (n_path n) p); reflexivity.
  - intros n. cbn. destruct (path_eqb (n_path n) p); reflexivity.
Qed.

(* ------------------------------------------------------------------ children *)

Lemma children_body : forall t x, x <> [] -> children t x = children (body t) x.
Proof.
  intros t x Hx. unfold children, body. induction t as [|n r IH]; [reflexivity|]. cbn [filter].
  destruct (is_child x (n_path n)) eqn:C.
  - assert (Hn : nonhost n = true).
    { pose proof C as C'. apply is_child_spec in C' as [k Hk]. unfold nonhost. apply Nat.leb_le. rewrite Hk, app_length. cbn.
      destruct x; [congruence|cbn; lia]. }
    rewrite Hn. cbn [filter]. rewrite C. now rewrite IH.
  - destruct (nonhost n); cbn [filter]; [rewrite C|]; exact IH.
Qed.

(* below a visible node that is not the parent of a hidden directory, both sides have the same children *)
Lemma rel_children : forall s od tF tE x, rel_tree s od tF tE -> x <> [] ->
  (forall k, hidden od (x ++ [k]) = false) ->
  children tE x = map (strip s) (children tF x).
Proof.
  intros s od tF tE x R Hx Hh. rewrite (children_body tE x Hx), R. clear R. unfold children.
  induction tF as [|n r IH]; [reflexivity|]. cbn [filter].
  destruct (is_child x (n_path n)) eqn:C.
  - assert (Hv : vis od n = true).
    { pose proof C as C'. apply is_child_spec in C' as [k Hk]. unfold vis, nonhost. rewrite Hk, Hh. cbn [negb]. rewrite andb_true_r.
      apply Nat.leb_le. rewrite app_length. destruct x; [congruence|]. cbn [length]. lia. }
    rewrite Hv. cbn [map filter]. rewrite strip_path, C. cbn [map]. now rewrite IH.
  - destruct (vis od n); cbn [map filter]; [rewrite strip_path, C|]; exact IH.
Qed.

Lemma rel_get_child : forall s od tF tE x k, rel_tree s od tF tE -> x <> [] -> hidden od (x ++ [k]) = false ->
  get_child tE x k = option_map (strip s) (get_child tF x k).
Proof.
  intros s od tF tE x k R Hx Hh. unfold get_child. apply (rel_find s od); [exact R| |exact Hh].
  rewrite app_length. cbn. destruct x; [congruence|cbn; lia].
Qed.

(* a traversal that starts at a visible node below host level, with a callback that does not look at subscriber tables, gives
   the same result on both sides *)
Lemma traversal_sim : forall {M : MatchOps} (A : Type) (cb : A -> node -> A * Z) s od tF tE m root uf gf acc,
  rel_tree s od tF tE -> root <> [] -> (forall acc n, cb acc (strip s n) = cb acc n) -> (forall r, hidden od (root ++ r) = false) ->
  do_traversal cb tE m root uf gf acc = do_traversal cb tF m root uf gf acc.
Proof.
  intros M A cb s od tF tE m root uf gf acc R Hr Hcb Hv. apply (do_traversal_two _ cb tF tE _ _ _ _ s); [exact Hcb| |];
    intros x; [|intros k]; intros Hx; apply is_prefix_spec in Hx as [r ->];
    [apply (rel_children s od)|apply (rel_get_child s od)]; try exact R; try (destruct root; [congruence|discriminate]);
    intros; rewrite <- app_assoc; apply Hv.
Qed.
