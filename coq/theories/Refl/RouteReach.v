(* Refl/RouteReach.v -- deliver_once for every state REACHABLE by client commands.
   The server part of a routing state evolves by the handlers of Refl/Server.v; C04's invariant (Refl/ServerProofs.v,
   run_inv) gives tree well-formedness and distinct session ids for every history from the empty server, the
   default-route tables are well formed by construction: so the only premises left are the clause laws (C04's class
   MatchLaws) and the two side conditions of run_inv (fewer than 2^31 subscriptions; a session arrives under a fresh
   (host, session name) pair). *)
From Coq Require Import List NArith Bool.
From Muscle Require Import Refl.Base Refl.BaseProofs Refl.Tree Refl.TreeProofs Refl.Session Refl.Server Refl.ServerProofs
  Refl.BoundedInv Refl.Route Refl.TravBase Refl.TraverseTheorems Refl.RouteProofs Refl.RouteRun
  Refl.TravWitness Refl.RouteWitness.
Import ListNotations.

Section Reach.
Context {M : MatchOps} {L : MatchLaws M}.
Variable fx : rfixes.

(* the server events inside a routing event *)
Definition srv_ev (ev : revent) : list event :=
  match ev with
  | RAttach s host nm => [EAttach s host nm]
  | RDetach s => [EDetach s]
  | RCmd s (RSrv c) => [ECmd s c]
  | RCmd _ _ => []
  end.

Lemma set_infos_srv : forall st l, rs_srv (set_infos st l) = rs_srv st.
Proof. reflexivity. Qed.

Lemma route_msg_srv : forall st s m, rs_srv (route_msg fx st s m) = rs_srv st.
Proof.
  intros st s m. unfold route_msg. destruct (in_cmd_range (u_what m)); [reflexivity|].
  destruct (get_session (rs_srv st) s); [|reflexivity]. destruct (get_info st s) as [ri|]; [|reflexivity].
  destruct (u_keys m); [|reflexivity].
  destruct (has_param (ri_params ri) PKeys); [reflexivity|]. destruct (ri_gw2nb ri); reflexivity.
Qed.

Lemma rs_srv_rstep : forall st ev, rs_srv (rstep fx st ev) = run (srv_fixes fx) (srv_ev ev) (rs_srv st).
Proof.
  intros st [s host nm | s | s c]; cbn [rstep srv_ev run fold_left].
  - (* RAttach *) destruct (get_session (rs_srv st) s) eqn:E; [|reflexivity]. cbn [step]. now rewrite E.
  - (* RDetach *) reflexivity.
  - (* RCmd *) destruct (get_session (rs_srv st) s) eqn:E.
    + destruct c; try reflexivity. apply route_msg_srv.
    + destruct c; try reflexivity. cbn [run fold_left step]. now rewrite E.
Qed.

Lemma run_app : forall f (a b : list event) (sv : server), run f (a ++ b) sv = run f b (run f a sv).
Proof. intros f a b sv. unfold run. apply fold_left_app. Qed.

Lemma rs_srv_rrun : forall evs st, rs_srv (rrun fx evs st) = run (srv_fixes fx) (flat_map srv_ev evs) (rs_srv st).
Proof.
  induction evs as [|ev evs IH]; intros st; [reflexivity|].
  cbn [rrun fold_left flat_map]. rewrite run_app, <- rs_srv_rstep. apply IH.
Qed.

(* the default-route tables are well formed by construction *)
Definition routes_wf (st : rstate) : Prop := forall ri, In ri (rs_info st) -> matcher_wf (ri_route ri).

Lemma rstep_routes_wf : forall st ev, routes_wf st -> routes_wf (rstep fx st ev).
Proof.
  intros st ev H. unfold routes_wf in *. destruct ev as [s host nm | s | s c].
  - (* RAttach *) cbn [rstep]. destruct (get_session (rs_srv st) s); [exact H|]. cbn [rs_info]. intros ri Hin. apply in_app_or in Hin.
    destruct Hin as [Hin|[Hin|[]]]; [now apply H | subst ri; apply empty_matcher_wf].
  - (* RDetach *) cbn [rstep rs_info]. intros ri Hin. apply filter_In in Hin. now apply H.
  - (* RCmd *) intros ri' Hin. destruct (forall2_in_r _ _ _ _ _ _ (rcmd_evolves fx st s c) Hin) as [ri [H1 [_ H2]]]. auto.
Qed.

(* every attached session has its routing record, in the same order *)
Definition aligned (st : rstate) : Prop := map ri_id (rs_info st) = ids (rs_srv st).

Lemma evolved_ids : forall new l l', Forall2 (evolved new) l l' -> map ri_id l' = map ri_id l.
Proof. intros new l l' H. induction H as [|a b l l' [[Hab _] _] H IH]; cbn; [reflexivity | now rewrite Hab, IH]. Qed.

Lemma map_filter_ri : forall (l : list rinfo) (s : sid),
  map ri_id (filter (fun ri => negb (N.eqb (ri_id ri) s)) l) = filter (fun k => negb (N.eqb k s)) (map ri_id l).
Proof.
  induction l as [|x l IH]; intros s; cbn [filter map]; [reflexivity|].
  destruct (N.eqb (ri_id x) s); cbn [negb map]; [apply IH | now rewrite IH].
Qed.

Lemma rstep_aligned : forall st ev, aligned st -> aligned (rstep fx st ev).
Proof.
  intros st ev H. unfold aligned in *. destruct ev as [s host nm | s | s c].
  - (* RAttach *) cbn [rstep]. destruct (get_session (rs_srv st) s) eqn:E; [exact H|]. cbn [rs_info rs_srv step]. rewrite E.
    rewrite map_app, H, ids_new_session. reflexivity.
  - (* RDetach *) cbn [rstep rs_info rs_srv step]. rewrite map_filter_ri, H, ids_detach. reflexivity.
  - (* RCmd *) rewrite (evolved_ids _ _ _ (rcmd_evolves fx st s c)), H, rs_srv_rstep.
    destruct c; cbn [srv_ev run fold_left]; try reflexivity. cbn [step].
    destruct (get_session (rs_srv st) s); [now rewrite ids_push_all, ids_handle | reflexivity].
Qed.

Lemma find_info_in : forall (l : list rinfo) (s : sid), In s (map ri_id l) -> exists ri, find (fun ri => N.eqb (ri_id ri) s) l = Some ri.
Proof.
  induction l as [|x l IH]; intros s H; [destruct H|]. cbn [find].
  destruct (N.eqb (ri_id x) s) eqn:E; [now exists x|].
  destruct H as [H|H]; [apply N.eqb_neq in E; cbn in H; contradiction | now apply IH].
Qed.

Lemma aligned_get_info : forall st s ss, aligned st -> get_session (rs_srv st) s = Some ss -> exists ri, get_info st s = Some ri.
Proof.
  intros st s ss H Hs. unfold get_info. apply find_info_in. rewrite H. apply get_session_ids. now exists ss.
Qed.

End Reach.

Section ReachFixed.
Context {M : MatchOps} {L : MatchLaws M}.

Local Notation FX := r_all_fixed.

(* every state reached from the empty server satisfies the premises of deliver_once *)
Theorem reachable_premises_lemma : forall (evs : list revent),
  small (run_budget (flat_map srv_ev evs)) -> wf_run (srv_fixes FX) empty_server (flat_map srv_ev evs) ->
  tree_wf (sv_tree (rs_srv (rrun FX evs empty_rstate))) /\
  NoDup (map s_id (sv_sessions (rs_srv (rrun FX evs empty_rstate)))) /\
  routes_wf (rrun FX evs empty_rstate).
Proof.
  intros evs HB HW. rewrite rs_srv_rrun. cbn [rs_srv empty_rstate].
  assert (I := run_inv (srv_fixes FX) eq_refl (flat_map srv_ev evs) empty_server 0 HB empty_inv HW).
  split; [apply wf_tree_tree_wf; exact (inv_tree _ _ _ I)|]. split; [exact (inv_ids _ _ _ I)|].
  apply (rrun_invariant _ _ (rstep_routes_wf _)). intros ri [].
Qed.

Lemma reachable_aligned : forall (fx : rfixes) (evs : list revent), aligned (rrun fx evs empty_rstate).
Proof. intros fx evs. apply (rrun_invariant _ _ (rstep_aligned _)). reflexivity. Qed.

(* deliver_once with the clause laws in the form of C04's class: they hold of every name *)
Lemma deliver_once_laws : forall (st : rstate) (s : sid) (ss : session) (ri : rinfo) (m : umsg),
  tree_wf (sv_tree (rs_srv st)) -> NoDup (map s_id (sv_sessions (rs_srv st))) -> matcher_wf (ri_route ri) ->
  get_session (rs_srv st) s = Some ss -> get_info st s = Some ri -> in_cmd_range (u_what m) = false ->
  route_msg FX st s m = delivered st s ss ri m.
Proof.
  intros st s ss ri m TWF. apply (deliver_once_lemma (fun _ => True)); try assumption.
  - intros c ks k _ Hk Hm. now apply (ckeys_spec c ks Hk k).
  - intros c ks k Hk Hin. now apply (ckeys_spec c ks Hk k).
  - intros n _. apply Forall_forall. intros; exact I.
Qed.

(* deliver_once in every reachable state *)
Theorem deliver_once_reachable_lemma : forall (evs : list revent) (s : sid) (ss : session) (ri : rinfo) (m : umsg),
  small (run_budget (flat_map srv_ev evs)) -> wf_run (srv_fixes FX) empty_server (flat_map srv_ev evs) ->
  let st := rrun FX evs empty_rstate in
  get_session (rs_srv st) s = Some ss -> get_info st s = Some ri -> in_cmd_range (u_what m) = false ->
  rstep FX st (RCmd s (RMsg m)) = delivered st s ss ri m.
Proof.
  intros evs s ss ri m HB HW st Hs Hi Hw.
  destruct (reachable_premises_lemma evs HB HW) as [TWF [NDS RWF]]. fold st in TWF, NDS, RWF.
  cbn [rstep]. rewrite Hs. apply deliver_once_laws; try assumption.
  apply RWF. unfold get_info in Hi. apply find_some in Hi. tauto.
Qed.

(* ... and the routing record of an attached session always exists *)
Theorem deliver_once_reachable_full_lemma : forall (evs : list revent) (s : sid) (ss : session) (m : umsg),
  small (run_budget (flat_map srv_ev evs)) -> wf_run (srv_fixes FX) empty_server (flat_map srv_ev evs) ->
  let st := rrun FX evs empty_rstate in
  get_session (rs_srv st) s = Some ss -> in_cmd_range (u_what m) = false ->
  exists ri, get_info st s = Some ri /\ rstep FX st (RCmd s (RMsg m)) = delivered st s ss ri m.
Proof.
  intros evs s ss m HB HW st Hs Hw.
  destruct (aligned_get_info st s ss (reachable_aligned FX evs) Hs) as [ri Hi].
  exists ri. split; [exact Hi|]. now apply deliver_once_reachable_lemma.
Qed.

End ReachFixed.

(* non-vacuity: the small instance satisfies MatchLaws, the setup
   history of Refl/RouteWitness.v satisfies the side conditions *)

Lemma wclause_eqb_spec : forall a b : wclause, wclause_eqb a b = true <-> a = b.
Proof.
  intros [[w1 l1]|] [[w2 l2]|]; cbn; split; intros H; try discriminate; try reflexivity.
  - apply andb_true_iff in H. destruct H as [H1 H2]. apply Bool.eqb_prop in H1. apply TravBase.path_eqb_eq in H2. now subst.
  - inversion H; subst. apply andb_true_iff. split; [apply Bool.eqb_reflx | apply TravBase.path_eqb_refl].
Qed.

#[global] Instance WLaws : MatchLaws WOps.
Proof.
  constructor.
  - exact wclause_eqb_spec.
  - intros k. reflexivity.
  - intros c ks Hk k. split; [now apply wkeys_sound | now apply wkeys_complete].
Qed.

Example setup_side_conditions :
  small (run_budget (flat_map srv_ev setup)) /\ wf_run (srv_fixes r_all_fixed) empty_server (flat_map srv_ev setup).
Proof.
  split; [vm_compute; reflexivity|].
  cbn [flat_map srv_ev setup app wf_run wf_event]. repeat split; intros x Hx E; vm_compute in Hx;
    repeat (destruct Hx as [Hx|Hx]; [subst x; vm_compute in E; discriminate|]); destruct Hx.
Qed.
