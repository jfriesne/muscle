(* Refl/IndexWitness.v -- C13: concrete histories.  (1) the pinned behaviour of the two places that were
   repaired refutes the property ([.._refuted], the witnesses were replayed on the real server);
   (2) why the push after every sub-Message of a batch matters; (3) non-vacuity of the theorems' premises. *)
From Coq Require Import List Arith Bool NArith.
Import ListNotations.
From Muscle Require Import Gen.Consts Refl.Index Refl.IndexModel.

Definition a_ : name := NX 0.
Definition x_ : name := NX 1.
Definition src_ : name := NX 2.
Definition dst_ : name := NX 3.

(* pinned ReorderDataCallback: the owner subscribes to its own node whose index was created by REORDERDATA
   (replay `2|0>sd:a/x:0;0>ro:a/x:-;0>su:*/a`): the snapshot is skipped and the replica stays empty *)
Definition reorder_witness : list (nat * list cmd) :=
  [ (0, [CSetData [([a_; x_], false)] false]); (0, [CReorder [([CLit a_; CLit x_], BEnd)]]); (0, [CSubscribe [CAny; CLit a_]]) ].

Lemma reorder_ipres_refuted :
  exists steps s p, let st := run cfg_pinned 1 steps in
    subscribed st s p = true /\ st_mirror st s p <> index_at (st_tree st) p.
Proof.
  exists reorder_witness, 0, [NS 0; a_]. vm_compute. split; [reflexivity | discriminate].
Qed.

(* the same history on the repaired model *)
Example reorder_fixed_ok :
  let st := run cfg_fixed 1 reorder_witness in
  subscribed st 0 [NS 0; a_] = true /\ st_mirror st 0 [NS 0; a_] = [x_] /\ index_at (st_tree st) [NS 0; a_] = [x_].
Proof. vm_compute. repeat split; reflexivity. Qed.

(* pinned CloneDataNodeSubtree twice onto the same destination (F10; replay
   `1|0>xsd:src/I0:1:-;0>xsd:src/I1:1:-;0>xcl:0/src:dst:0:-;0>xcl:0/src:dst:0:-`) *)
Definition clone_witness : list (nat * list cmd) :=
  [ (0, [ASetDataNode [src_; NI 0] true BEnd]); (0, [ASetDataNode [src_; NI 1] true BEnd]);
    (0, [AClone [NS 0; src_] [dst_] false BEnd]); (0, [AClone [NS 0; src_] [dst_] false BEnd]) ].

Lemma clone_refuted :
  exists steps p, ~ NoDup (index_at (st_tree (run cfg_pinned 1 steps)) p).
Proof.
  exists clone_witness, [NS 0; dst_]. vm_compute. intro H.
  inversion H as [|? ? Hn _]. apply Hn. right. left. reflexivity.
Qed.

Example clone_fixed_ok :
  index_at (st_tree (run cfg_fixed 1 clone_witness)) [NS 0; dst_] = [NI 0; NI 1].
Proof. vm_compute. reflexivity. Qed.

(* Why PushSubscriptionMessages() must run after every sub-Message of a PR_COMMAND_BATCH: with the push
   delayed to the end of the batch a GETDATA snapshot overtakes the pending update of an earlier sub-Message. *)
Definition step_late_push (cfg : config) (st : state) (sc : nat * list cmd) : state :=
  if fst sc <? st_n st then flush (fold_left (fun st c => handle cfg st (fst sc) c) (snd sc) (with_out st [])) else st.

Definition batch_witness_prefix : list (nat * list cmd) :=
  [ (0, [CSetData [([a_], false)] false]); (0, [CSubscribe [CLit (NS 0); CLit a_]]); (0, [CInsertOrdered [[CLit a_]] [BEnd; BEnd]]) ].
Definition batch_witness_last : nat * list cmd :=
  (0, [CInsertOrdered [[CLit a_]] [BName (NI 1)]; CGetData [CLit (NS 0); CLit a_]]).

Lemma late_push_refuted :
  let st := step_late_push cfg_fixed (run cfg_fixed 1 batch_witness_prefix) batch_witness_last in
  subscribed st 0 [NS 0; a_] = true /\
  index_at (st_tree st) [NS 0; a_] = [NI 0; NI 2; NI 1] /\
  st_mirror st 0 [NS 0; a_] = [NI 0; NI 2; NI 2; NI 1].
Proof. vm_compute. repeat split; reflexivity. Qed.

Example batch_ok :
  let st := step cfg_fixed (run cfg_fixed 1 batch_witness_prefix) batch_witness_last in
  index_at (st_tree st) [NS 0; a_] = [NI 0; NI 2; NI 1] /\ st_mirror st 0 [NS 0; a_] = [NI 0; NI 2; NI 1].
Proof. vm_compute. split; reflexivity. Qed.

(* the server sends nothing for an empty index: a client that kept a stale replica across an
   unsubscription would not be corrected (hence the client-side rule modelled in [unsubscribe]) *)
Lemma empty_snapshot_is_silent : forall stale, replay (snapshot (mkNode (Some []) 0)) stale = stale.
Proof. intro stale. reflexivity. Qed.

Definition nv_steps_ : list (nat * list cmd) :=
  [ (1, [CSubscribe [CAny; CLit a_]]);
    (0, [CSetData [([a_], false)] false]);
    (0, [CInsertOrdered [[CLit a_]] [BEnd; BEnd; BName (NI 0)]]) ].

(* a quiet removal (PR_NAME_REMOVE_QUIETLY) leaves the parent's watchers with a stale replica: the exclusion of
   quiet removals from the histories of replay_eq is necessary, and quiet_frame's exception is exact *)
Lemma quiet_removal_refuted :
  let st := remove_child_quiet (run cfg_fixed 2 (firstn 3 nv_steps_)) [NS 0; a_; NI 1] in
  subscribed st 1 [NS 0; a_] = true /\ st_pend st = [] /\
  index_at (st_tree st) [NS 0; a_] = [NI 2; NI 0] /\ st_mirror st 1 [NS 0; a_] = [NI 2; NI 0; NI 1].
Proof. vm_compute. repeat split; reflexivity. Qed.

(* non-vacuity: a history with two sessions, a foreign subscriber, nested indices and a recursive removal,
   ending in a state where the premises of replay_eq hold with a non-trivial index *)
Definition nv_steps : list (nat * list cmd) :=
  [ (1, [CSubscribe [CAny; CLit a_]]);
    (0, [CSetData [([a_], false)] false]);
    (0, [CInsertOrdered [[CLit a_]] [BEnd; BEnd; BName (NI 0)]]);
    (0, [CReorder [([CLit a_; CLit (NI 0)], BEnd)]; CGetData [CAny; CLit a_]]);
    (0, [CRemove [[CLit a_; CLit (NI 1)]]]) ].

Example nv_replay_eq :
  let st := run cfg_fixed 2 nv_steps in
  subscribed st 1 [NS 0; a_] = true /\ index_at (st_tree st) [NS 0; a_] = [NI 2; NI 0] /\
  st_mirror st 1 [NS 0; a_] = [NI 2; NI 0] /\
  st_hist st 1 [NS 0; a_] = [OpIns 0 (NI 0); OpIns 1 (NI 1); OpIns 0 (NI 2); OpRem 1 (NI 0); OpIns 2 (NI 0); OpRem 1 (NI 1)].
Proof. vm_compute. repeat split; reflexivity. Qed.

Example nv_remove_premises :
  let st := run cfg_fixed 2 (firstn 4 nv_steps) in
  has_node (st_tree st) [NS 0; a_; NI 1] = true /\ 2 <= length [NS 0; a_; NI 1] /\
  In (NI 1) (index_at (st_tree st) [NS 0; a_]).
Proof. vm_compute. split; [reflexivity|]. split; [apply le_S, le_n|]. right. left. reflexivity. Qed.

Lemma opcodes_distinct :
  c_INDEX_OP_ENTRYINSERTED <> c_INDEX_OP_ENTRYREMOVED /\ c_INDEX_OP_ENTRYINSERTED <> c_INDEX_OP_CLEARED /\
  c_INDEX_OP_ENTRYREMOVED <> c_INDEX_OP_CLEARED.
Proof. vm_compute. repeat split; discriminate. Qed.
