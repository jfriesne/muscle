(* Refl/TraverseExit.v -- what the run [R] of Refl/TraverseProofs.v gives for particular callbacks.

   trav_invariant: a property of the accumulator that every callback call keeps holds after the traversal.
   R_deep / R_shallow: for a callback that always returns NODE_DEPTH_SESSIONNAME ("skip to the next session"), started
               at the global root: below depth 3 only the first node of the visit list is called back on, above it
               the traversal is a plain fold over the truncated visit list [Vt].
   trav_stop:  a callback that goes on until it answers -1 is a fold that stops.
   trav_ext:   the traversal depends on the callback pointwise. *)
From Coq Require Import List NArith ZArith Bool Arith Lia.
From Muscle Require Import Refl.Base Refl.Tree Refl.Matcher Refl.Traverse Refl.TraverseProofs.
Import ListNotations.

Section Invariant.
Context {M : MatchOps}.
Variable t : tree.
Variable m : matcher.
Variable root_depth : nat.
Variable use_filters : bool.
Variable guard_fixed : bool.
Variable A : Type.
Variable cb : A -> node -> A * Z.
Variable P : A -> Prop.
Hypothesis cb_keeps : forall acc n, P acc -> P (fst (cb acc n)).

Lemma trav_invariant : forall fuel x acc, P acc -> P (fst (trav A cb t m root_depth use_filters guard_fixed fuel x acc)).
Proof.
  intros fuel x acc H. rewrite trav_R. unfold fin.
  pose proof (R_invariant t m root_depth use_filters guard_fixed A cb P cb_keeps fuel x acc H) as HR.
  destruct (snd (R t m root_depth use_filters guard_fixed A cb fuel x acc)); exact HR.
Qed.

End Invariant.

(* ------------------------------------------------------------------ a callback that always returns NODE_DEPTH_SESSIONNAME *)

Section ConstDepth.
Context {M : MatchOps}.
Variable t : tree.
Variable m : matcher.
Variable use_filters : bool.
Variable guard_fixed : bool.
Variable A : Type.
Variable h : A -> node -> A.

(* PassMessageCallback, FindSessionsCallback (without a result limit): do something, then "skip to the next session" *)
Definition cbK : A -> node -> A * Z := fun acc n => (h acc n, 2%Z).

Local Notation RR := (R t m 0 use_filters guard_fixed A cbK).
Local Notation VV := (V t m 0 use_filters guard_fixed).
Local Notation CV := (child_visits m 0 use_filters guard_fixed).
Local Notation RX := (run_x A cbK).
Local Notation RP := (run_procs m 0 use_filters guard_fixed A cbK).

Definition first_only (acc : A) (l : list node) : A * option Z :=
  match l with [] => (acc, None) | n :: _ => (h acc n, Some 2%Z) end.

Lemma run_x_deep : forall recW W c l acc,
  4 <= depth c -> (forall a, recW (n_path c) a = first_only a (W (n_path c))) ->
  RX recW c l acc = first_only acc (act_nodes W c l).
Proof.
  intros recW W c l acc Hd HW. revert acc. induction l as [|a l IH]; intros acc; [reflexivity|].
  destruct a; cbn [run_x act_nodes flat_map].
  - unfold cbK at 1. cbn [fst snd].
    replace (Z.ltb 2 (Z.of_nat (depth c) - 1)) with true by (symmetry; apply Z.ltb_lt; lia). reflexivity.
  - rewrite HW. fold (act_nodes W c l). destruct (W (n_path c)) as [|n0 r]; cbn [first_only fst snd app].
    + apply IH.
    + replace (Z.ltb 2 (Z.of_nat (depth c) - 1)) with true by (symmetry; apply Z.ltb_lt; lia). reflexivity.
Qed.

Lemma run_procs_deep : forall recW W rel ps acc,
  (forall ck, In ck ps -> 4 <= depth (fst ck)) ->
  (forall ck, In ck ps -> forall a, recW (n_path (fst ck)) a = first_only a (W (n_path (fst ck)))) ->
  RP recW rel ps acc = first_only acc (flat_map (CV W rel) ps).
Proof.
  intros recW W rel ps. induction ps as [|ck ps IH]; intros acc Hd HW; [reflexivity|].
  cbn [run_procs flat_map].
  rewrite (run_x_deep recW W (fst ck) _ acc (Hd ck (or_introl eq_refl)) (HW ck (or_introl eq_refl))).
  change (act_nodes W (fst ck) (actions m 0 use_filters guard_fixed (fst ck) rel (snd ck) (active m rel) 0 false false))
    with (CV W rel ck).
  destruct (CV W rel ck) as [|n0 r]; cbn [first_only fst snd app].
  - apply IH; intros ck' H'; [apply Hd | apply HW]; now right.
  - reflexivity.
Qed.

(* at depth 3 and below, the first node called back on ends the traversal of that subtree *)
Lemma R_deep : forall f x acc, 3 <= length x -> RR f x acc = first_only acc (VV f x).
Proof.
  induction f as [|f IH]; intros x acc Hx; [reflexivity|].
  cbn [R V]. apply run_procs_deep.
  - intros ck Hck. destruct (procs_in t m _ _ _ Hck) as [_ [k Hk]]. unfold depth. rewrite Hk, app_length. cbn. lia.
  - intros ck Hck a. apply IH. destruct (procs_in t m _ _ _ Hck) as [_ [k Hk]]. rewrite Hk, app_length. cbn. lia.
Qed.

Lemma run_x_shallow : forall recW W c l acc,
  depth c <= 3 ->
  (forall a, fst (recW (n_path c) a) = fold_left h (W (n_path c)) a /\
             (snd (recW (n_path c) a) = None \/ snd (recW (n_path c) a) = Some 2%Z)) ->
  RX recW c l acc = (fold_left h (act_nodes W c l) acc, None).
Proof.
  intros recW W c l acc Hd HW. revert acc. induction l as [|a l IH]; intros acc; [reflexivity|].
  destruct a; cbn [run_x act_nodes flat_map].
  - unfold cbK at 1. cbn [fst snd].
    replace (Z.ltb 2 (Z.of_nat (depth c) - 1)) with false by (symmetry; apply Z.ltb_ge; lia).
    unfold cbK. cbn [fst]. fold (act_nodes W c l). rewrite IH. reflexivity.
  - destruct (HW acc) as [H1 H2]. fold (act_nodes W c l). rewrite fold_left_app, <- H1.
    destruct H2 as [H2|H2]; rewrite H2.
    + apply IH.
    + replace (Z.ltb 2 (Z.of_nat (depth c) - 1)) with false by (symmetry; apply Z.ltb_ge; lia). apply IH.
Qed.

Lemma run_procs_shallow : forall recW W rel ps acc,
  (forall ck, In ck ps -> depth (fst ck) <= 3) ->
  (forall ck, In ck ps -> forall a, fst (recW (n_path (fst ck)) a) = fold_left h (W (n_path (fst ck))) a /\
             (snd (recW (n_path (fst ck)) a) = None \/ snd (recW (n_path (fst ck)) a) = Some 2%Z)) ->
  RP recW rel ps acc = (fold_left h (flat_map (CV W rel) ps) acc, None).
Proof.
  intros recW W rel ps. induction ps as [|ck ps IH]; intros acc Hd HW; [reflexivity|].
  cbn [run_procs flat_map].
  rewrite (run_x_shallow recW W (fst ck) _ acc (Hd ck (or_introl eq_refl)) (HW ck (or_introl eq_refl))).
  cbn [fst snd]. rewrite fold_left_app.
  apply IH; intros ck' H'; [apply Hd | apply HW]; now right.
Qed.

(* the visit list with every subtree at depth 3 cut down to its first node *)
Fixpoint Vt (fuel : nat) (x : path) : list node :=
  match fuel with
  | 0 => []
  | S f => flat_map (CV (fun p => if Nat.leb 3 (length p) then firstn 1 (VV f p) else Vt f p) (length x - 0))
                    (procs t m x (length x - 0))
  end.

Lemma R_shallow : forall f x acc, length x < 3 -> RR f x acc = (fold_left h (Vt f x) acc, None).
Proof.
  induction f as [|f IH]; intros x acc Hx; [reflexivity|].
  cbn [R Vt]. apply run_procs_shallow.
  - intros ck Hck. destruct (procs_in t m _ _ _ Hck) as [_ [k Hk]]. unfold depth. rewrite Hk, app_length. cbn. lia.
  - intros ck Hck a. destruct (Nat.leb 3 (length (n_path (fst ck)))) eqn:E.
    + apply Nat.leb_le in E. rewrite (R_deep f _ a E).
      destruct (VV f (n_path (fst ck))) as [|n0 r]; cbn; tauto.
    + apply Nat.leb_gt in E. rewrite (IH _ a E). cbn. tauto.
Qed.

(* the whole traversal from the global root *)
Theorem trav_const_depth : forall fuel acc,
  fst (trav A cbK t m 0 use_filters guard_fixed fuel [] acc) = fold_left h (Vt fuel []) acc.
Proof.
  intros fuel acc. rewrite trav_R. rewrite R_shallow by (cbn; lia). reflexivity.
Qed.

(* Vt is a part of V ... *)
Lemma child_visits_incl : forall (W1 W2 : path -> list node) rel ck,
  (forall n, In n (W1 (n_path (fst ck))) -> In n (W2 (n_path (fst ck)))) ->
  forall n, In n (CV W1 rel ck) -> In n (CV W2 rel ck).
Proof.
  intros W1 W2 rel ck HW n H. unfold child_visits in *. apply in_flat_map in H. destruct H as [a [Ha Hn]].
  apply in_flat_map. exists a. split; [assumption|]. destruct a; [assumption | now apply HW].
Qed.

Lemma firstn_1_in : forall (B : Type) (l : list B) (x : B), In x (firstn 1 l) -> In x l.
Proof. intros B [|y l] x H; [destruct H|]. cbn in H. destruct H as [H|[]]. now left. Qed.

Lemma Vt_incl : forall f x n, In n (Vt f x) -> In n (VV f x).
Proof.
  induction f as [|f IH]; intros x n H; [destruct H|].
  cbn [Vt V] in *. apply in_flat_map in H. destruct H as [ck [Hck Hn]]. apply in_flat_map. exists ck. split; [assumption|].
  revert Hn. apply child_visits_incl. intros n0 H0.
  destruct (Nat.leb 3 (length (n_path (fst ck)))); [now apply firstn_1_in | now apply IH].
Qed.

(* ... that keeps, for every node of V, a node with the same path up to depth 3 (hence of the same session) *)
Lemma Vt_covers : forall f x n, length x < 3 -> In n (VV f x) ->
  exists n', In n' (Vt f x) /\ firstn 3 (n_path n') = firstn 3 (n_path n).
Proof.
  induction f as [|f IH]; intros x n Hx H; [destruct H|].
  cbn [V] in H. apply in_flat_map in H. destruct H as [ck [Hck Hn]].
  unfold child_visits in Hn. apply in_flat_map in Hn. destruct Hn as [a [Ha Hn]].
  assert (Lift : forall n', In n' (match a with ACall => [fst ck]
                                   | ARec => (fun p => if Nat.leb 3 (length p) then firstn 1 (VV f p) else Vt f p) (n_path (fst ck)) end) ->
                 In n' (Vt (S f) x)).
  { intros n' H'. cbn [Vt]. apply in_flat_map. exists ck. split; [assumption|].
    unfold child_visits. apply in_flat_map. exists a. split; assumption. }
  destruct a.
  - destruct Hn as [Hn|[]]. subst n. exists (fst ck). split; [apply Lift; now left | reflexivity].
  - cbn beta in Lift. destruct (Nat.leb 3 (length (n_path (fst ck)))) eqn:E.
    + apply Nat.leb_le in E.
      destruct (VV f (n_path (fst ck))) as [|n0 r] eqn:EV; [destruct Hn|].
      exists n0. split; [apply Lift; now left|].
      assert (H0 : In n0 (VV f (n_path (fst ck)))) by (rewrite EV; now left).
      assert (H1 : In n (VV f (n_path (fst ck)))) by (rewrite EV; exact Hn).
      destruct (V_is_below t m 0 use_filters guard_fixed _ _ _ H0) as [_ [r0 [_ P0]]].
      destruct (V_is_below t m 0 use_filters guard_fixed _ _ _ H1) as [_ [r1 [_ P1]]].
      rewrite P0, P1. rewrite !firstn_app. replace (3 - length (n_path (fst ck))) with 0 by lia. reflexivity.
    + apply Nat.leb_gt in E. destruct (IH _ n E Hn) as [n' [H1 H2]]. exists n'. split; [now apply Lift | assumption].
Qed.

End ConstDepth.

(* ------------------------------------------------------------------ the traversal depends on the callback pointwise *)

Section Ext.
Context {M : MatchOps}.
Variable t : tree.
Variable m : matcher.
Variable root_depth : nat.
Variable use_filters : bool.
Variable guard_fixed : bool.
Variable A : Type.
Variables cb1 cb2 : A -> node -> A * Z.
Hypothesis cb_eq : forall acc n, cb1 acc n = cb2 acc n.

Lemma run_x_ext : forall recW1 recW2, (forall p a, recW1 p a = recW2 p a) ->
  forall c l acc, run_x A cb1 recW1 c l acc = run_x A cb2 recW2 c l acc.
Proof.
  intros recW1 recW2 HW c l. induction l as [|a l IH]; intros acc; [reflexivity|].
  destruct a; cbn [run_x].
  - rewrite cb_eq. destruct (Z.ltb (snd (cb2 acc c)) (Z.of_nat (depth c) - 1)); [reflexivity | apply IH].
  - rewrite HW. destruct (snd (recW2 (n_path c) acc)) as [d|]; [|apply IH].
    destruct (Z.ltb d (Z.of_nat (depth c) - 1)); [reflexivity | apply IH].
Qed.

Lemma run_procs_ext : forall recW1 recW2, (forall p a, recW1 p a = recW2 p a) ->
  forall rel ps acc,
    run_procs m root_depth use_filters guard_fixed A cb1 recW1 rel ps acc =
    run_procs m root_depth use_filters guard_fixed A cb2 recW2 rel ps acc.
Proof.
  intros recW1 recW2 HW rel ps. induction ps as [|ck ps IH]; intros acc; [reflexivity|].
  cbn [run_procs]. rewrite (run_x_ext recW1 recW2 HW).
  destruct (snd (run_x A cb2 recW2 (fst ck) (actions m root_depth use_filters guard_fixed (fst ck) rel (snd ck) (active m rel) 0 false false) acc));
    [reflexivity | apply IH].
Qed.

Lemma R_ext : forall fuel x acc,
  R t m root_depth use_filters guard_fixed A cb1 fuel x acc = R t m root_depth use_filters guard_fixed A cb2 fuel x acc.
Proof.
  induction fuel as [|f IH]; intros x acc; [reflexivity|]. cbn [R]. apply run_procs_ext. exact IH.
Qed.

Lemma trav_ext : forall fuel x acc,
  trav A cb1 t m root_depth use_filters guard_fixed fuel x acc = trav A cb2 t m root_depth use_filters guard_fixed fuel x acc.
Proof. intros. rewrite !trav_R. now rewrite R_ext. Qed.

End Ext.

(* ------------------------------------------------------------------ a callback that goes on until it aborts the traversal *)

Section Stoppable.
Context {M : MatchOps}.
Variable t : tree.
Variable m : matcher.
Variable root_depth : nat.
Variable use_filters : bool.
Variable guard_fixed : bool.
Variable A : Type.
Variable g : A -> node -> A.
Variable stop : A -> bool.

(* FindNodesCallback: do something, then return the node's depth, or -1 ("abort now") once [stop] holds *)
Definition cbS : A -> node -> A * Z :=
  fun acc n => (g acc n, if stop (g acc n) then (-1)%Z else Z.of_nat (depth n)).

(* fold g over the list until stop holds *)
Fixpoint sfold (L : list node) (acc : A) : A * bool :=
  match L with
  | [] => (acc, false)
  | n :: L' => if stop (g acc n) then (g acc n, true) else sfold L' (g acc n)
  end.

Definition conv (r : A * bool) : A * option Z := (fst r, if snd r then Some (-1)%Z else None).

Lemma sfold_app : forall l1 l2 acc,
  sfold (l1 ++ l2) acc = if snd (sfold l1 acc) then sfold l1 acc else sfold l2 (fst (sfold l1 acc)).
Proof.
  induction l1 as [|n l1 IH]; intros l2 acc; [reflexivity|].
  cbn [app sfold]. destruct (stop (g acc n)); [reflexivity | apply IH].
Qed.

Local Notation RS := (R t m root_depth use_filters guard_fixed A cbS).
Local Notation VV := (V t m root_depth use_filters guard_fixed).
Local Notation CV := (child_visits m root_depth use_filters guard_fixed).

Lemma run_x_stop : forall recW W c l acc,
  1 <= depth c -> (forall a, recW (n_path c) a = conv (sfold (W (n_path c)) a)) ->
  run_x A cbS recW c l acc = conv (sfold (act_nodes W c l) acc).
Proof.
  intros recW W c l acc Hd HW. revert acc. induction l as [|a l IH]; intros acc; [reflexivity|].
  destruct a; cbn [run_x act_nodes flat_map].
  - fold (act_nodes W c l). cbn [app sfold]. unfold cbS at 1 2 3. cbn [fst snd].
    destruct (stop (g acc c)).
    + replace (Z.ltb (-1) (Z.of_nat (depth c) - 1)) with true by (symmetry; apply Z.ltb_lt; lia). reflexivity.
    + rewrite ltb_self_false. unfold cbS. cbn [fst]. apply IH.
  - fold (act_nodes W c l). rewrite HW, sfold_app.
    destruct (sfold (W (n_path c)) acc) as [a1 b1] eqn:E. unfold conv at 1 2 3. cbn [fst snd].
    destruct b1.
    + replace (Z.ltb (-1) (Z.of_nat (depth c) - 1)) with true by (symmetry; apply Z.ltb_lt; lia). reflexivity.
    + apply IH.
Qed.

Lemma run_procs_stop : forall recW W rel ps acc,
  (forall ck, In ck ps -> 1 <= depth (fst ck)) ->
  (forall ck, In ck ps -> forall a, recW (n_path (fst ck)) a = conv (sfold (W (n_path (fst ck))) a)) ->
  run_procs m root_depth use_filters guard_fixed A cbS recW rel ps acc = conv (sfold (flat_map (CV W rel) ps) acc).
Proof.
  intros recW W rel ps. induction ps as [|ck ps IH]; intros acc Hd HW; [reflexivity|].
  cbn [run_procs flat_map].
  rewrite (run_x_stop recW W (fst ck) _ acc (Hd ck (or_introl eq_refl)) (HW ck (or_introl eq_refl))).
  change (act_nodes W (fst ck) (actions m root_depth use_filters guard_fixed (fst ck) rel (snd ck) (active m rel) 0 false false))
    with (CV W rel ck).
  rewrite sfold_app. destruct (sfold (CV W rel ck) acc) as [a1 b1] eqn:E. unfold conv at 1 2. cbn [fst snd].
  destruct b1; [reflexivity|].
  apply IH; intros ck' H'; [apply Hd | apply HW]; now right.
Qed.

Lemma R_stop : forall f x acc, RS f x acc = conv (sfold (VV f x) acc).
Proof.
  induction f as [|f IH]; intros x acc; [reflexivity|].
  cbn [R V]. apply run_procs_stop.
  - intros ck Hck. destruct (procs_in t m _ _ _ Hck) as [_ [k Hk]]. unfold depth. rewrite Hk, app_length. cbn. lia.
  - intros ck Hck a. apply IH.
Qed.

Theorem trav_stop : forall fuel x acc,
  fst (trav A cbS t m root_depth use_filters guard_fixed fuel x acc) = fst (sfold (VV fuel x) acc).
Proof.
  intros fuel x acc. rewrite trav_R, R_stop. unfold fin, conv. cbn [fst snd].
  destruct (snd (sfold (VV fuel x) acc)); reflexivity.
Qed.

End Stoppable.
