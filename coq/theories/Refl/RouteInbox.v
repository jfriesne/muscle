(* Refl/RouteInbox.v -- the whole outgoing queue of a session at the end of ANY history, in closed form.

   rcmd_exact:         one client command, in a state satisfying the invariants: every record keeps its id and its queue gains
                       exactly [step_new] -- the command's Message if the session is one of its targets and accepts Messages
                       from neighbours (or is the sender itself), nothing otherwise.
   step_exact:         hence, for any event, the queue of a session afterwards is [next_inbox] of its queue before.
   inbox_closed_form:  by induction over the history: the queue at the end = [expected_inbox], the concatenation, in the
                       order sent, of exactly the Messages addressed to the session since it arrived.  This is
                       "exactly once to every selected session, to no other, in the order sent" for whole histories. *)
From Coq Require Import List ZArith Bool Lia.
From Muscle Require Import Refl.Base Refl.BaseProofs Refl.Session Refl.Server Refl.ServerProofs Refl.BoundedInv Refl.Route
  Refl.TravBase Refl.RouteProofs Refl.RouteRun Refl.RouteReach Refl.RouteWitness.
Import ListNotations.

Lemma forall2_find : forall (B : Type) (R : B -> B -> Prop) (p : B -> bool) (l l' : list B) (y : B),
  Forall2 R l l' -> (forall a b, R a b -> p b = p a) -> find p l' = Some y -> exists x, find p l = Some x /\ R x y.
Proof.
  intros B R p l l' y F K. induction F as [|a b l l' Hab F IH]; intros H; [discriminate|].
  cbn [find] in *. rewrite <- (K a b Hab). destruct (p b); [|now apply IH]. inversion H; subst. now exists a.
Qed.

Lemma find_app : forall (B : Type) (p : B -> bool) (l1 l2 : list B),
  find p (l1 ++ l2) = match find p l1 with Some y => Some y | None => find p l2 end.
Proof. intros B p l1 l2. induction l1 as [|x l1 IH]; [reflexivity|]. cbn [find app]. now destruct (p x). Qed.

Lemma find_filter_other : forall (B : Type) (p q : B -> bool) (l : list B),
  (forall x, p x = true -> q x = true) -> find p (filter q l) = find p l.
Proof.
  intros B p q l H. induction l as [|x l IH]; [reflexivity|]. cbn [filter find].
  destruct (q x) eqn:Eq.
  - cbn [find]. destruct (p x); [reflexivity | exact IH].
  - destruct (p x) eqn:Ep; [rewrite (H x Ep) in Eq; discriminate | exact IH].
Qed.

Lemma run_budget_app : forall {M : MatchOps} (a b : list event), run_budget (a ++ b) = run_budget a + run_budget b.
Proof. intros M a b. induction a as [|e a IH]; cbn [app run_budget]; [reflexivity | rewrite IH; lia]. Qed.

Lemma wf_run_app : forall {M : MatchOps} f (a b : list event) (sv : server),
  wf_run f sv (a ++ b) -> wf_run f sv a /\ wf_run f (run f a sv) b.
Proof.
  intros M f a. induction a as [|e a IH]; intros b sv H; cbn [app run fold_left wf_run] in *; [now split|].
  destruct H as [H1 H2]. destruct (IH b _ H2). now repeat split.
Qed.

Section Inbox.
Context {M : MatchOps} {L : MatchLaws M}.

Local Notation FX := r_all_fixed.

(* what the event adds to the queue of the session described by x *)
Definition step_new (st : rstate) (ev : revent) (x : rinfo) : list dlv :=
  match ev with
  | RCmd s (RMsg m) =>
    if in_cmd_range (u_what m) then []
    else match get_session (rs_srv st) s, get_info st s with
         | Some ss, Some ri =>
           if route_targets st s ri m (ri_id x) && (N.eqb s (ri_id x) || ri_nb2gw x)
           then [mkD s (u_tag m) (overwrite (u_session m) (s_name ss))] else []
         | _, _ => []
         end
  | _ => []
  end.

(* the queue of session r after the event, given its queue before *)
Definition next_inbox (st : rstate) (ev : revent) (r : sid) (cur : list dlv) : list dlv :=
  match ev with
  | RAttach s _ _ =>
    if N.eqb s r then match get_session (rs_srv st) s with None => [] | Some _ => cur end else cur
  | _ => match get_info st r with Some x => cur ++ step_new st ev x | None => cur end
  end.

Fixpoint expected_inbox (st : rstate) (evs : list revent) (r : sid) (cur : list dlv) : list dlv :=
  match evs with
  | [] => cur
  | ev :: evs' => expected_inbox (rstep FX st ev) evs' r (next_inbox st ev r cur)
  end.

(* the invariants a reachable routing state satisfies *)
Definition good (B : nat) (st : rstate) : Prop := inv B (rs_srv st) /\ routes_wf st /\ aligned st.

Lemma good_empty : good 0 empty_rstate.
Proof. split; [exact empty_inv|]. split; [intros ri [] | reflexivity]. Qed.

Lemma good_step : forall B st ev,
  small (B + run_budget (srv_ev ev)) -> good B st -> wf_run (srv_fixes FX) (rs_srv st) (srv_ev ev) ->
  good (B + run_budget (srv_ev ev)) (rstep FX st ev).
Proof.
  intros B st ev HB [Iv [R A]] HW. split; [|split].
  - rewrite rs_srv_rstep. now apply (run_inv (srv_fixes FX) eq_refl).
  - now apply rstep_routes_wf.
  - now apply rstep_aligned.
Qed.

Lemma put_inbox_inbox : forall s d x,
  ri_inbox (put_inbox s d x) = ri_inbox x ++ (if N.eqb s (ri_id x) || ri_nb2gw x then [d] else []).
Proof. intros s d x. unfold put_inbox. destruct (N.eqb s (ri_id x) || ri_nb2gw x); cbn; [reflexivity | now rewrite app_nil_r]. Qed.

Lemma get_info_none_ids : forall st r, get_info st r = None -> ~ In r (map ri_id (rs_info st)).
Proof.
  intros st r H Hin. destruct (find_info_in _ _ Hin) as [ri E]. unfold get_info in H. congruence.
Qed.

Definition gains (st : rstate) (ev : revent) (x x' : rinfo) : Prop :=
  ri_id x' = ri_id x /\ ri_inbox x' = ri_inbox x ++ step_new st ev x.

Lemma rcmd_exact : forall B st s c, good B st ->
  Forall2 (gains st (RCmd s c)) (rs_info st) (rs_info (rstep FX st (RCmd s c))).
Proof.
  intros B st s c [Iv [R A]]. unfold gains.
  assert (Same : (forall x, step_new st (RCmd s c) x = []) -> Forall2 (gains st (RCmd s c)) (rs_info st) (rs_info st)).
  { intros E. apply Forall2_diag. intros x. unfold gains. now rewrite E, app_nil_r. }
  cbn [rstep]. destruct (get_session (rs_srv st) s) as [ss|] eqn:Es.
  2: { apply Same. intros x. destruct c as [| |m|]; try reflexivity. cbn [step_new]. rewrite Es. now destruct (in_cmd_range (u_what m)). }
  destruct c as [p | l | m | c']; [| | |now apply Same].
  - (* RSetParams *) apply Forall2_map_self. intros x. cbn [step_new]. rewrite app_nil_r.
    destruct (N.eqb (ri_id x) s); [|now split]. destruct (set_params_kept FX x p) as [H1 [H2 _]]. now split.
  - (* RRemoveParams *) apply Forall2_map_self. intros x. cbn [step_new]. rewrite app_nil_r.
    destruct (N.eqb (ri_id x) s); [|now split]. destruct (remove_params_kept l x) as [H1 [H2 _]]. now split.
  - (* RMsg *) destruct (in_cmd_range (u_what m)) eqn:Ew; [|destruct (get_info st s) as [ri|] eqn:Ei].
    + unfold route_msg. rewrite Ew. apply Same. intros x. cbn [step_new]. now rewrite Ew.
    + rewrite (deliver_once_laws st s ss ri m); try assumption.
      * apply Forall2_map_self. intros x. cbn [step_new]. rewrite Ew, Es, Ei.
        destruct (route_targets st s ri m (ri_id x)); cbn [andb]; [|now rewrite app_nil_r].
        split; [apply put_inbox_id | apply put_inbox_inbox].
      * apply wf_tree_tree_wf. exact (inv_tree _ _ _ Iv).
      * exact (inv_ids _ _ _ Iv).
      * apply R. unfold get_info in Ei. apply find_some in Ei. tauto.
    + unfold route_msg. rewrite Ew, Es, Ei. apply Same. intros x. cbn [step_new]. now rewrite Ew, Es, Ei.
Qed.

Theorem step_exact : forall B st ev r x' cur,
  good B st -> (forall x, get_info st r = Some x -> ri_inbox x = cur) ->
  get_info (rstep FX st ev) r = Some x' -> ri_inbox x' = next_inbox st ev r cur.
Proof.
  intros B st ev r x' cur G Hcur H. destruct ev as [s host nm | s | s c]; cbn [next_inbox].
  - (* RAttach *) cbn [rstep] in H. destruct (get_session (rs_srv st) s) as [ss|] eqn:Es.
    + rewrite (Hcur _ H). now destruct (N.eqb s r).
    + unfold get_info in *. cbn [rs_info] in H. rewrite find_app in H.
      destruct (find (fun ri => N.eqb (ri_id ri) r) (rs_info st)) as [x|] eqn:F.
      * inversion H; subst x'. rewrite (Hcur x eq_refl).
        destruct (N.eqb s r) eqn:E; [|reflexivity].
        (* a session without a server-side entry has no routing record *)
        exfalso. apply N.eqb_eq in E. subst r. apply find_some in F. destruct F as [F1 F2]. apply N.eqb_eq in F2.
        destruct G as [_ [_ A]]. assert (Hin : In s (ids (rs_srv st))) by (rewrite <- A, <- F2; now apply in_map).
        apply get_session_ids in Hin. destruct Hin as [ss Hss]. congruence.
      * cbn [find new_info ri_id] in H.
        destruct (N.eqb s r); [inversion H; reflexivity | discriminate].
  - (* RDetach *) unfold get_info in *. cbn [rstep rs_info] in H. destruct (N.eqb r s) eqn:E.
    + exfalso. apply N.eqb_eq in E. subst r. apply find_some in H. destruct H as [H1 H2].
      apply filter_In in H1. destruct H1 as [_ H1]. rewrite H2 in H1. discriminate.
    + rewrite find_filter_other in H by (intros x Hx; apply N.eqb_eq in Hx; now rewrite Hx, E).
      rewrite H, (Hcur _ H). symmetry. apply app_nil_r.
  - (* RCmd *) unfold get_info in *.
    destruct (forall2_find _ _ _ _ _ _ (rcmd_exact B st s c G) (fun a b K => f_equal (fun i => N.eqb i r) (proj1 K)) H)
      as [x [F [_ E]]].
    rewrite F, E. f_equal. now apply Hcur.
Qed.

Theorem inbox_closed_form_gen : forall (evs : list revent) (B : nat) (st : rstate) (r : sid) (cur : list dlv) (x' : rinfo),
  good B st -> small (B + run_budget (flat_map srv_ev evs)) -> wf_run (srv_fixes FX) (rs_srv st) (flat_map srv_ev evs) ->
  (forall x, get_info st r = Some x -> ri_inbox x = cur) ->
  get_info (rrun FX evs st) r = Some x' -> ri_inbox x' = expected_inbox st evs r cur.
Proof.
  induction evs as [|ev evs IH]; intros B st r cur x' G HB HW Hcur H.
  - cbn in *. now apply Hcur.
  - cbn [rrun fold_left flat_map expected_inbox] in *.
    apply wf_run_app in HW. destruct HW as [HWa HWb]. rewrite <- rs_srv_rstep in HWb.
    rewrite run_budget_app in HB.
    assert (G' : good (B + run_budget (srv_ev ev)) (rstep FX st ev)).
    { apply good_step; [|exact G|exact HWa]. eapply small_le; [|exact HB]. lia. }
    apply (IH (B + run_budget (srv_ev ev)) (rstep FX st ev) r (next_inbox st ev r cur) x' G').
    + now rewrite <- Nat.add_assoc.
    + exact HWb.
    + intros x Hx. now apply (step_exact B st ev r x cur G Hcur).
    + exact H.
Qed.

Theorem inbox_closed_form_lemma : forall (evs : list revent) (r : sid) (x' : rinfo),
  small (run_budget (flat_map srv_ev evs)) -> wf_run (srv_fixes FX) empty_server (flat_map srv_ev evs) ->
  get_info (rrun FX evs empty_rstate) r = Some x' -> ri_inbox x' = expected_inbox empty_rstate evs r [].
Proof.
  intros evs r x' HB HW H. apply (inbox_closed_form_gen evs 0 empty_rstate r [] x' good_empty HB HW); [|exact H].
  intros x Hx. discriminate.
Qed.

End Inbox.

(* non-vacuity: the history of finding F19 -- session 1 owns two matching nodes and is sent ONE Message -- computed by the
   closed form: exactly one copy *)
Example f19_expected_inbox :
  expected_inbox empty_rstate f19_history 1%N [] = [mkD 0%N 7%N SAbsent] /\
  expected_inbox empty_rstate f19_history 2%N [] = [] /\
  small (run_budget (flat_map srv_ev f19_history)).
Proof. repeat split; vm_compute; reflexivity. Qed.
