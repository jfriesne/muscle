(* Refl/IsoCut.v -- C06 composed with C03: a connection cut after ANY byte prefix of a session's outgoing stream is a cut
   between two complete commands.
   The client side queues Messages on its gateway, the gateway pair of Gw/FrameModel.v (standard binary gateway, default
   encoding) moves bytes under arbitrary DoOutput / DoInput calls and arbitrary Write / Read results, and the server's
   session dispatches what its input gateway has delivered.  C03's prefix safety says the delivered list is a prefix of the
   queued list; so whatever the server does with the delivered Messages when the connection ends, it does with the first
   j queued Messages for some j -- never with a fragment of a Message. *)
From Coq Require Import List NArith Arith Lia.
From Muscle Require Import Gw.GwBase Gw.TransportProofs Gw.FrameModel Gw.FrameProofs Gw.FrameDefault
     Refl.Base Refl.BaseProofs Refl.Matcher Refl.Traverse Refl.Session Refl.Server Refl.ServerProofs
     Refl.IsoModel Refl.IsoFrame Refl.IsoRun Refl.IsoClean.
Import ListNotations.

Lemma prefix_firstn : forall (A : Type) (l d tl : list A), l = d ++ tl -> d = firstn (length d) l.
Proof. intros A l d tl ->. rewrite firstn_app, Nat.sub_diag, firstn_all. cbn. now rewrite app_nil_r. Qed.

(* C03, restated: at every moment of every run of the gateway pair, the receiver has been handed the first j queued
   Messages, whole, for some j *)
Theorem delivered_is_firstn : forall max_in (evs : list (GwBase.event bytes)),
  Forall (ev_wf (d_wfb max_in)) evs ->
  exists j, j <= length (ev_msgs evs) /\
            s_dlv (sys_run fs_queue d_do_output (d_do_input max_in) d_sys0 evs) = firstn j (ev_msgs evs).
Proof.
  intros max_in evs Hwf. destruct (d_prefix_safety max_in evs Hwf) as [tl Htl].
  exists (length (s_dlv (sys_run fs_queue d_do_output (d_do_input max_in) d_sys0 evs))). split.
  - rewrite Htl, app_length. lia.
  - now apply (prefix_firstn _ _ _ tl).
Qed.

Section Cut.
Context {M : MatchOps}.
Variable fx : fixes.

(* how the session reads a flattened Message: ANY function (Message parsing is C01/C02's subject) *)
Variable decode : bytes -> xcmd.
(* how the server's event loop interleaves the commands of s with everything else that happens: ANY function *)
Variable weave : list xevent -> list xevent.

Definition cmds_of (s : sid) (ms : list bytes) : list xevent := map (fun m => XCmd s (decode m)) ms.

(* the server after s's connection ended at an arbitrary moment of an arbitrary run of s's gateway pair *)
Definition cut_state (s : sid) (xs0 : xserver) (max_in : N) (evs : list (GwBase.event bytes)) : xserver :=
  xstep fx (xrun fx (weave (cmds_of s (s_dlv (sys_run fs_queue d_do_output (d_do_input max_in) d_sys0 evs)))) xs0) (XDetach s).

(* BYTE-LEVEL CUT = CUT BETWEEN COMMANDS.  For every Message sequence the client queued, every segmentation of its byte
   stream and every moment at which the connection ends: the server is in the state it would be in had the client sent
   exactly its first j Messages, for some j, and then closed the connection. *)
Theorem byte_cut_is_command_cut : forall s xs0 max_in (evs : list (GwBase.event bytes)),
  Forall (ev_wf (d_wfb max_in)) evs ->
  exists j, j <= length (ev_msgs evs) /\
            cut_state s xs0 max_in evs = xstep fx (xrun fx (weave (cmds_of s (firstn j (ev_msgs evs)))) xs0) (XDetach s).
Proof.
  intros s xs0 max_in evs Hwf. destruct (delivered_is_firstn max_in evs Hwf) as [j [Hj Hd]].
  exists j. split; [exact Hj|]. unfold cut_state. now rewrite Hd.
Qed.

End Cut.

(* ... and so the state after a cut at any byte is clean of s (Refl/IsoClean.v), whenever the commands that got through
   leave the server invariant in place -- which every well-formed history does (reachable_inv) *)
Theorem byte_cut_clean : forall (M : MatchOps) (L : MatchLaws M) (fx : fixes), fx_guard fx = true ->
  forall (decode : bytes -> xcmd) (weave : list xevent -> list xevent) s max_in (evs : list (GwBase.event bytes)),
  Forall (ev_wf (d_wfb max_in)) evs ->
  (forall j, small (xrun_budget (weave (cmds_of decode s (firstn j (ev_msgs evs))))) /\
             xwf_run fx empty_xserver (weave (cmds_of decode s (firstn j (ev_msgs evs))))) ->
  exists j, j <= length (ev_msgs evs) /\
    let before := xrun fx (weave (cmds_of decode s (firstn j (ev_msgs evs)))) empty_xserver in
    forall ss, get_session (xs_sv before) s = Some ss ->
    left_clean before s ss (cut_state fx decode weave s empty_xserver max_in evs).
Proof.
  intros M L fx G decode weave s max_in evs Hwf Hh.
  destruct (byte_cut_is_command_cut fx decode weave s empty_xserver max_in evs Hwf) as [j [Hj Hc]].
  exists j. split; [exact Hj|]. intros before ss Hs. rewrite Hc. destruct (Hh j) as [H1 H2].
  now apply (detach_clean fx G).
Qed.
