(* Refl/MirrorStale.v -- quiet changes the observer CAN see: mirror_converges_announced.
   A command of another session that consists of quiet SETDATA / REMOVEDATA only tells nobody anything; the observer's
   mirror keeps what it held at the nodes whose payload (or existence) the command changed.  Those paths are collected
   ([stale_run]); at every other foreign path the mirror is exact at every quiescent point, whatever happened quietly
   elsewhere.  (A path stays in the collection once it is in: a later announced change would in fact repair it, unless a
   filter hides it.)
   Proof: a ghost client whose mirror is exact everywhere runs along (its mirror is patched at the changed paths when a
   quiet command happens); real and ghost mirror agree outside the collection, and every step keeps that. *)
From Coq Require Import List NArith ZArith Bool Arith Lia.
From Muscle Require Import Gen.Consts Refl.Base Refl.BaseProofs Refl.Tree Refl.TreeProofs Refl.Matcher Refl.Session
     Refl.Server Refl.ServerProofs Refl.Mirror Refl.MirrorBase Refl.MirrorSteps Refl.MirrorHandlers Refl.MirrorCmd
     Refl.MirrorFrame Refl.MirrorQuiet Refl.MirrorProofs Refl.MirrorCheck.
Import ListNotations.

Section Stale.
Context {M : MatchOps} {L : MatchLaws M}.
Variable fx : fixes.
Hypothesis guard_on : fx_guard fx = true.
Hypothesis overlap_on : fx_overlap fx = true.
Hypothesis push_on : fx_push fx = true.

Fixpoint all_quiet (c : cmd) : bool :=
  match c with
  | CSetData flags _ => flag_set flags c_SETDATANODE_FLAG_QUIET
  | CRemoveData q _ => q
  | CBatch l => forallb all_quiet l
  | _ => false
  end.

Lemma push_all_clean : forall sv, sv_dirty sv = false -> push_all sv = sv.
Proof. intros sv H. unfold push_all. now rewrite H. Qed.

Lemma all_quiet_rest : forall c nest sv b, all_quiet c = true -> sv_dirty sv = false -> same_rest sv (handle fx nest sv b c).
Proof.
  induction c using cmd_ind'; intros nest sv b Hq Hd; try discriminate; cbn [handle all_quiet] in *;
    destruct (get_session sv b) as [bs|] eqn:Hbs; try apply same_rest_refl.
  - exact (nf_rest (set_data_items_nf i sv b bs f Hbs) Hq).
  - exact (nf_rest (do_remove_data_nf fx sv bs k q) Hq).
  - destruct (Nat.ltb nest max_batch_nest); [|apply same_rest_refl].
    clear Hbs bs. revert sv Hd Hq. induction H as [|c l Hc Hl IHl]; intros sv Hd Hq; [apply same_rest_refl|].
    cbn [forallb] in Hq. apply andb_true_iff in Hq as [H1 H2].
    pose proof (Hc (S nest) sv b H1 Hd) as Hr1.
    assert (Hd1 : sv_dirty (handle fx (S nest) sv b c) = false) by (destruct Hr1 as [_ Hx]; congruence).
    rewrite (push_all_clean _ Hd1). eapply same_rest_trans; [exact Hr1|]. now apply IHl.
Qed.

Definition opt_eqb (a b : option payload) : bool :=
  match a, b with Some x, Some y => N.eqb x y | None, None => true | _, _ => false end.

Lemma opt_eqb_eq : forall a b, opt_eqb a b = true -> a = b.
Proof. intros [x|] [y|] H; cbn in H; try discriminate; auto. apply N.eqb_eq in H. now subst. Qed.

Definition changed (t t' : tree) : list path :=
  filter (fun p => negb (opt_eqb (data_at t p) (data_at t' p))) (map n_path t ++ map n_path t').

Lemma changed_spec : forall t t' q, pmem q (changed t t') = false -> data_at t' q = data_at t q.
Proof.
  intros t t' q H. destruct (opt_eqb (data_at t q) (data_at t' q)) eqn:E; [symmetry; now apply opt_eqb_eq|].
  destruct (in_dec (list_eq_dec N.eq_dec) q (map n_path t ++ map n_path t')) as [Hin|Hni].
  - assert (In q (changed t t')) by (unfold changed; apply filter_In; split; [auto|now rewrite E]).
    apply pmem_spec in H0. congruence.
  - assert (H1 : find_node t q = None).
    { apply find_node_none. intros n Hn E'. apply Hni. apply in_or_app. left. apply in_map_iff. eauto. }
    assert (H2 : find_node t' q = None).
    { apply find_node_none. intros n Hn E'. apply Hni. apply in_or_app. right. apply in_map_iff. eauto. }
    unfold data_at. now rewrite H1, H2.
Qed.

Definition patch (m : mirror) (ps : list path) (f : path -> option payload) : mirror :=
  fold_left (fun m p => match f p with Some v => mirror_set m p v | None => mirror_remove m p end) ps m.

Lemma patch_get : forall ps m f q, mirror_get (patch m ps f) q = if pmem q ps then f q else mirror_get m q.
Proof.
  unfold patch. induction ps as [|p ps IH]; intros m f q; cbn [fold_left pmem existsb]; [reflexivity|].
  rewrite IH. fold (pmem q ps). destruct (pmem q ps); [now rewrite orb_true_r|]. rewrite orb_false_r.
  rewrite (path_eqb_sym q p).
  destruct (f p) as [v|] eqn:Ef; [rewrite mirror_get_set|rewrite mirror_get_remove];
    destruct (path_eqb p q) eqn:E; auto; apply path_eqb_eq in E; subst; now rewrite Ef.
Qed.

Lemma patch_ok : forall ps m f, mirror_ok m -> mirror_ok (patch m ps f).
Proof.
  unfold patch. induction ps as [|p ps IH]; intros m f H; cbn [fold_left]; auto.
  apply IH. destruct (f p); [now apply mirror_set_ok|now apply mirror_remove_ok].
Qed.

Definition agree (st : list path) (m mg : mirror) : Prop :=
  forall q, pmem q st = false -> mirror_get m q = mirror_get mg q.

Definition R (st : list path) (c cg : client) : Prop :=
  c_id cg = c_id c /\ c_subs cg = c_subs c /\ mirror_ok (c_mirror c) /\ mirror_ok (c_mirror cg)
  /\ agree st (c_mirror c) (c_mirror cg).

Lemma agree_apply_all : forall st ds m mg, agree st m mg -> agree st (apply_all m ds) (apply_all mg ds).
Proof.
  intros st ds m mg H q Hq. destruct (apply_all_shape ds q) as [[r Hr]|Hf]; [now rewrite !Hr|]. rewrite !Hf. now apply H.
Qed.

Lemma agree_filter : forall st (f : path * payload -> bool) m mg, mirror_ok m -> mirror_ok mg ->
  agree st m mg -> agree st (filter f m) (filter f mg).
Proof. intros st f m mg H1 H2 H q Hq. rewrite !mirror_get_filter by auto. now rewrite (H q Hq). Qed.

Lemma agree_more : forall st st' m mg, (forall q, pmem q st' = false -> pmem q st = false) -> agree st m mg -> agree st' m mg.
Proof. intros st st' m mg H Ha q Hq. apply Ha. now apply H. Qed.

Lemma R_deliver : forall st sv c cg, R st c cg -> R st (deliver sv c) (deliver sv cg).
Proof.
  intros st sv c cg [H1 [H2 [H3 [H4 H5]]]]. unfold deliver. rewrite H1.
  destruct (get_session sv (c_id c)) as [ss|]; [|repeat split; auto].
  repeat split; cbn [c_id c_subs c_mirror]; auto; try (now apply apply_all_ok). now apply agree_apply_all.
Qed.

Lemma R_prune : forall st c cg, R st c cg -> R st (prune c) (prune cg).
Proof.
  intros st c cg [H1 [H2 [H3 [H4 H5]]]]. unfold prune. rewrite H1, H2.
  repeat split; cbn [c_id c_subs c_mirror]; auto; try (now apply filter_ok_mirror). now apply agree_filter.
Qed.

Lemma Forall2_map2 : forall (A : Type) (P : A -> A -> Prop) (f g : A -> A) l l',
  (forall a b, P a b -> P (f a) (g b)) -> Forall2 P l l' -> Forall2 P (map f l) (map g l').
Proof. intros A P f g l l' H HF. induction HF; cbn; constructor; auto. Qed.

Lemma Forall2_filter2 : forall (A : Type) (P : A -> A -> Prop) (f : A -> bool) l l',
  (forall a b, P a b -> f a = f b) -> Forall2 P l l' -> Forall2 P (filter f l) (filter f l').
Proof.
  intros A P f l l' H HF. induction HF as [|a b l l' Hab HF IH]; cbn; [constructor|].
  rewrite <- (H a b Hab). destruct (f a); [constructor|]; auto.
Qed.

(* one event keeps real and ghost clients related (same server, same event) *)
Lemma world_step_rel : forall st sv cl cg last lastg ev, Forall2 (R st) cl cg ->
  Forall2 (R st) (w_clients (world_step fx (mkWorld sv cl last) ev)) (w_clients (world_step fx (mkWorld sv cg lastg) ev)).
Proof.
  intros st sv cl cg last lastg ev HF. unfold world_step. cbn [w_srv w_clients].
  set (sv1 := step fx sv ev).
  destruct ev as [s host nm|s|s c].
  - apply Forall2_map2; [intros a b; apply R_deliver|].
    destruct (get_session sv s); [exact HF|]. apply Forall2_app; [exact HF|]. constructor; [|constructor].
    repeat split; cbn; try constructor. 
  - apply Forall2_filter2; [intros a b [H1 _]; now rewrite H1|].
    apply Forall2_map2; [intros a b; apply R_deliver|exact HF].
  - destruct (get_session sv s) as [ss|].
    + assert (H0 : Forall2 (R st)
                (map (deliver sv1) (map (fun x => if N.eqb (c_id x) s then mkClient (c_id x) (c_mirror x) (fst (client_cmd (c_subs x) c)) else x) cl))
                (map (deliver sv1) (map (fun x => if N.eqb (c_id x) s then mkClient (c_id x) (c_mirror x) (fst (client_cmd (c_subs x) c)) else x) cg))).
      { apply Forall2_map2; [intros a b; apply R_deliver|].
        apply Forall2_map2; [|exact HF]. intros a b [H1 [H2 [H3 [H4 H5]]]]. rewrite H1, H2.
        destruct (N.eqb (c_id a) s); repeat split; cbn [c_id c_subs c_mirror]; auto. }
      destruct (snd (client_cmd empty_matcher c)); [|exact H0].
      apply Forall2_map2; [|exact H0]. intros a b HR. pose proof HR as [H1 _]. rewrite H1.
      destruct (N.eqb (c_id a) s); [now apply R_prune|exact HR].
    + apply Forall2_map2; [intros a b; apply R_deliver|exact HF].
Qed.

Variable o : sid.

Definition quiet_other (ev : event) : bool :=
  match ev with ECmd b c => negb (N.eqb b o) && all_quiet c | _ => false end.

Lemma all_quiet_nounsub : forall c, all_quiet c = true -> cmd_nounsub c = true.
Proof.
  induction c using cmd_ind'; intros Hq; try discriminate; try reflexivity.
  cbn [all_quiet cmd_nounsub] in *. induction H as [|c l Hc Hl IH]; [reflexivity|].
  cbn [forallb] in *. apply andb_true_iff in Hq as [H1 H2]. now rewrite (Hc H1), (IH H2).
Qed.

Lemma all_quiet_subs : forall c m, all_quiet c = true -> fst (client_cmd m c) = m.
Proof.
  induction c using cmd_ind'; intros m Hq; try discriminate; try reflexivity.
  cbn [client_cmd]. rewrite (client_batch_fst l m false). cbn [all_quiet] in Hq. revert m. induction H as [|c l Hc Hl IH]; intros m; [reflexivity|].
  cbn [forallb] in Hq. apply andb_true_iff in Hq as [H1 H2]. cbn [fold_left]. rewrite (Hc m H1). now apply IH.
Qed.

(* the ghost's mirror after a quiet command: what it should hold at the changed paths *)
Definition patch_client (sv : server) (t' : tree) (S : list path) (c : client) : client :=
  mkClient (c_id c)
           (patch (c_mirror c) S (fun q => match get_session sv (c_id c) with
                                           | Some ss => expected t' ss q
                                           | None => None
                                           end))
           (c_subs c).

(* the invariant: some ghost clients, exact everywhere, agree with the real ones outside [st] *)
Definition SInv (B : nat) (w : world) (st : list path) : Prop :=
  exists cg lastg, Forall2 (R st) (w_clients w) cg
                   /\ winv B (mkWorld (w_srv w) cg lastg) /\ wJ (mkWorld (w_srv w) cg lastg) o.

Lemma pmem_app : forall q a b, pmem q (a ++ b) = pmem q a || pmem q b.
Proof. intros q a b. unfold pmem. apply existsb_app. Qed.

(* the real clients keep what they hold (nothing is delivered), the ghosts are patched at S *)
Lemma R_patch : forall st S sv t' (F : client -> client) cl cg,
  (forall x, c_id (F x) = c_id x /\ c_subs (F x) = c_subs x /\ c_mirror (F x) = c_mirror x) ->
  Forall2 (R st) cl cg -> Forall2 (R (st ++ S)) (map F cl) (map (patch_client sv t' S) cg).
Proof.
  intros st S sv t' F cl cg HF H. induction H as [|x y cl cg Hxy H IH]; cbn [map]; constructor; [|exact IH].
  destruct (HF x) as [H1 [H2 H3]]. destruct Hxy as [G1 [G2 [G3 [G4 G5]]]].
  unfold R. rewrite H1, H2, H3. unfold patch_client. cbn [c_id c_subs c_mirror].
  repeat split; auto; [now apply patch_ok|].
  intros q Hq'. rewrite pmem_app in Hq'. apply orb_false_iff in Hq' as [Hq1 Hq2].
  rewrite patch_get, Hq2. now apply G5.
Qed.

Lemma stale_step_quiet : forall B w st b c, small (B + cmd_budget c) -> SInv B w st ->
  b <> o -> all_quiet c = true ->
  SInv (B + cmd_budget c) (world_step fx w (ECmd b c))
       (st ++ changed (sv_tree (w_srv w)) (sv_tree (w_srv (world_step fx w (ECmd b c))))).
Proof.
  intros B [sv cl last] st b c HB [cg [lastg [HF [HW HJ]]]] Hne Hq. cbn [w_srv w_clients] in *.
  destruct HW as [I Hqu Hhas Hmok]. cbn [w_srv w_clients] in *.
  pose proof (quiet_settled _ Hqu) as Hset0.
  set (sv1 := step fx sv (ECmd b c)).
  assert (Hr : same_rest sv sv1).
  { unfold sv1. cbn [step]. destruct (get_session sv b); [|apply same_rest_refl].
    pose proof (all_quiet_rest c 0 sv b Hq (proj1 Hqu)) as Hr. destruct Hr as [Hr1 Hr2].
    rewrite push_all_clean by (rewrite Hr2; apply (proj1 Hqu)). split; auto. }
  destruct Hr as [Hr1 Hr2].
  assert (Hset1 : settled sv1).
  { split; [rewrite Hr2; apply (proj1 Hqu)|]. intros ss Hin. rewrite Hr1 in Hin. apply (proj2 Hset0 ss Hin). }
  assert (I1 : inv (B + cmd_budget c) sv1) by (apply (step_inv fx guard_on (ECmd b c) sv B); auto; exact Logic.I).
  assert (Hgs : forall k, get_session sv1 k = get_session sv k) by (intros k; unfold get_session; now rewrite Hr1).
  set (S := changed (sv_tree sv) (sv_tree sv1)).
  (* nothing is queued for anybody, and the sender's record of its subscriptions does not move *)
  assert (Hd : forall y, c_id (deliver sv1 y) = c_id y /\ c_subs (deliver sv1 y) = c_subs y /\ c_mirror (deliver sv1 y) = c_mirror y).
  { intros y. unfold deliver. rewrite Hgs. destruct (get_session sv (c_id y)) as [ss|] eqn:Hss; [|auto].
    cbn [c_id c_subs c_mirror]. assert (Hin : In ss (sv_sessions sv)) by (apply find_session_some in Hss; tauto).
    destruct (proj2 Hqu ss Hin) as [_ Hout]. rewrite Hout. auto. }
  assert (Hreal : forall x,
            let x' := deliver sv1 (if N.eqb (c_id x) b then mkClient (c_id x) (c_mirror x) (fst (client_cmd (c_subs x) c)) else x) in
            c_id x' = c_id x /\ c_subs x' = c_subs x /\ c_mirror x' = c_mirror x).
  { intros x. rewrite (all_quiet_subs c (c_subs x) Hq).
    destruct (N.eqb (c_id x) b); [exact (Hd (mkClient (c_id x) (c_mirror x) (c_subs x)))|apply Hd]. }
  exists (map (patch_client sv (sv_tree sv1) S) cg), [].
  unfold world_step. cbn [w_srv w_clients step]. fold sv1.
  assert (Hfl : snd (client_cmd empty_matcher c) = false) by (apply nounsub_no_unsub; now apply all_quiet_nounsub).
  split; [|split].
  - fold (step fx sv (ECmd b c)). fold sv1.
    destruct (get_session sv b); [rewrite Hfl, map_map|]; now apply R_patch.
  - (* the ghost world is well formed *)
    constructor; cbn [w_srv w_clients].
    + eapply inv_same_core; [apply clear_outs_core|exact I1].
    + now apply quiet_clear_outs.
    + intros c' Hc'. apply in_map_iff in Hc' as [x [Hx1 Hx2]]. subst c'. cbn [patch_client c_id c_subs].
      destruct (Hhas x Hx2) as [ss [Hss Hsub]]. exists (clear_out ss). rewrite get_session_clear, Hgs, Hss. auto.
    + intros c' Hc'. apply in_map_iff in Hc' as [x [Hx1 Hx2]]. subst c'. cbn [patch_client c_mirror]. apply patch_ok. now apply Hmok.
  - (* ... and exact *)
    intros c' Hc' Hid. cbn [w_srv w_clients] in *. apply in_map_iff in Hc' as [x [Hx1 Hx2]]. subst c'.
    cbn [patch_client c_id c_mirror] in *.
    destruct (Hhas x Hx2) as [ss [Hss Hsub]]. rewrite Hid in Hss.
    intros ss' Hss' q Hown. rewrite get_session_clear, Hgs, Hss in Hss'. cbn in Hss'. inversion Hss'; subst ss'. clear Hss'.
    assert (Hss1 : get_session sv1 o = Some ss) by (now rewrite Hgs).
    rewrite (V_cleared _ sv1 o ss q Hset1 Hss1). f_equal. rewrite patch_get. rewrite Hid, Hss.
    assert (Hown0 : own_node ss q = false) by (rewrite <- Hown; apply own_node_dir; reflexivity).
    assert (He : expected (sv_tree (clear_outs sv1)) (clear_out ss) q = expected (sv_tree sv1) ss q) by (apply expected_subs; reflexivity).
    change (match get_session sv b with Some _ => push_all (handle fx 0 sv b c) | None => sv end) with sv1.
    rewrite He. fold S. destruct (pmem q S) eqn:Eq; [reflexivity|].
    pose proof (HJ x Hx2 Hid ss Hss q Hown0) as Hx. cbn [w_srv] in Hx.
    rewrite (V_quiet (c_mirror x) sv o ss q Hqu Hss) in Hx. inversion Hx as [Hx'].
    rewrite Hx'. symmetry. apply expected_data. now apply changed_spec.
Qed.

Lemma stale_step_ok : forall B w st ev, small (B + ev_budget ev) -> SInv B w st ->
  wf_event (w_srv w) ev -> ev_ok o w ev -> ev_clean o w ev ->
  SInv (B + ev_budget ev) (world_step fx w ev) st.
Proof.
  intros B [sv cl last] st ev HB [cg [lastg [HF [HW HJ]]]] Hwf Hok Hcl. cbn [w_srv w_clients] in *.
  destruct (world_step_ok fx guard_on overlap_on push_on B (mkWorld sv cg lastg) ev o HB HW HJ Hwf Hok Hcl) as [HW' HJ'].
  exists (w_clients (world_step fx (mkWorld sv cg lastg) ev)), (w_last (world_step fx (mkWorld sv cg lastg) ev)).
  split; [now apply world_step_rel|]. split; [exact HW'|exact HJ'].
Qed.

(* every event is either fine for mirror_converges_partial, or an all-quiet command of another session *)
Fixpoint oks_wrun (w : world) (evs : list event) : Prop :=
  match evs with
  | [] => True
  | ev :: r => (quiet_other ev = true \/ (ev_ok o w ev /\ ev_clean o w ev)) /\ oks_wrun (world_step fx w ev) r
  end.

(* the paths changed by the all-quiet commands of other sessions, collected along the run *)
Fixpoint stale_run (w : world) (evs : list event) (st : list path) : list path :=
  match evs with
  | [] => st
  | ev :: r =>
    let w' := world_step fx w ev in
    stale_run w' r (if quiet_other ev then st ++ changed (sv_tree (w_srv w)) (sv_tree (w_srv w')) else st)
  end.

Lemma stale_run_ok : forall evs B w st, small (B + run_budget evs) -> SInv B w st -> wf_wrun fx w evs -> oks_wrun w evs ->
  SInv (B + run_budget evs) (world_run fx evs w) (stale_run w evs st).
Proof.
  induction evs as [|ev evs IH]; intros B w st HB HS Hwf Hok; cbn [world_run fold_left run_budget stale_run] in *.
  - now rewrite Nat.add_0_r.
  - destruct Hwf as [Hw1 Hw2]. destruct Hok as [Hok1 Hok2]. rewrite Nat.add_assoc.
    assert (HB1 : small (B + ev_budget ev)) by (eapply small_le; [|exact HB]; lia).
    destruct (quiet_other ev) eqn:Eq.
    + destruct ev as [| |b c]; try discriminate. cbn [quiet_other] in Eq. apply andb_true_iff in Eq as [E1 E2].
      apply negb_true_iff in E1. apply N.eqb_neq in E1. cbn [ev_budget] in *.
      apply IH; auto; [now rewrite <- Nat.add_assoc|]. now apply stale_step_quiet.
    + destruct Hok1 as [Hq|[Ha Hb]]; [discriminate|].
      apply IH; auto; [now rewrite <- Nat.add_assoc|]. now apply stale_step_ok.
Qed.

Lemma Forall2_In_l : forall (A : Type) (P : A -> A -> Prop) l l' a, Forall2 P l l' -> In a l -> exists b, In b l' /\ P a b.
Proof.
  intros A P l l' a HF. induction HF as [|x y l l' Hxy HF IH]; intros Hin; [destruct Hin|].
  destruct Hin as [E|Hin]; [subst; exists y; split; [now left|auto]|].
  destruct (IH Hin) as [b [H1 H2]]. exists b. split; [now right|auto].
Qed.

(* mirror_converges_announced: quiet changes by other sessions allowed anywhere; the mirror is exact at every foreign
   path that no all-quiet command changed *)
Theorem mirror_converges_announced : forall evs,
  wf_wrun fx empty_world evs -> oks_wrun empty_world evs -> small (run_budget evs) ->
  forall c ss, In c (w_clients (world_run fx evs empty_world)) -> c_id c = o ->
  get_session (w_srv (world_run fx evs empty_world)) o = Some ss ->
  forall q, own_node ss q = false -> pmem q (stale_run empty_world evs []) = false ->
  mirror_get (c_mirror c) q = expected (sv_tree (w_srv (world_run fx evs empty_world))) ss q.
Proof.
  intros evs Hwf Hok Hsm c ss Hc Hid Hss q Hown Hst.
  assert (HS0 : SInv 0 empty_world []).
  { exists [], []. split; [constructor|]. split; [apply empty_winv|]. intros c0 []. }
  destruct (stale_run_ok evs 0 empty_world [] Hsm HS0 Hwf Hok) as [cg [lastg [HF [HW HJ]]]].
  destruct (Forall2_In_l _ _ _ _ c HF Hc) as [cgc [Hin [H1 [H2 [H3 [H4 H5]]]]]].
  rewrite (H5 q Hst).
  destruct HW as [_ Hq _ _]. cbn [w_srv w_clients] in *.
  assert (Hidg : c_id cgc = o) by congruence.
  pose proof (HJ cgc Hin Hidg ss Hss q Hown) as H. cbn [w_srv] in H.
  rewrite (V_quiet (c_mirror cgc) _ o ss q Hq Hss) in H. now inversion H.
Qed.

Definition ev_oks_b (ev : event) : bool := quiet_other ev || (ev_ok_b o ev && ev_clean_b o ev).

Lemma oks_wrun_b_spec : forall evs w, forallb ev_oks_b evs = true -> oks_wrun w evs.
Proof.
  induction evs as [|ev evs IH]; intros w H; [exact I|]. cbn [forallb] in H. apply andb_true_iff in H as [H1 H2].
  split; [|now apply IH]. unfold ev_oks_b in H1. apply orb_true_iff in H1 as [H1|H1]; [now left|right].
  apply andb_true_iff in H1 as [Ha Hb]. split; [now apply ev_ok_b_one|now apply ev_clean_b_one].
Qed.

End Stale.
