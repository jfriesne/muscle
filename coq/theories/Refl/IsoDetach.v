(* Refl/IsoDetach.v -- C06, second half: a session that leaves, leaves no trace.

   For every state satisfying the server invariant of Refl/ServerProofs.v (it holds in every reachable state: run_inv)
   and every attached session s, after [detach] (AboutToDetachFromServer -> Cleanup, reflector/StorageReflectSession.cpp 203):
     - the tree is exactly: the old tree without s's directory and everything below it, without the host node iff that had
       no other child left, every remaining node unchanged but for s's mark in its subscriber table, which is gone;
     - no node lies at or below s's directory, no subscriber table mentions s, s is no longer among the sessions and all
       other sessions keep identity, subscriptions and limits;
     - every other session that subscribed to a node of the subtree (and whose filters, if it uses any, accept the node)
       holds a PR_RESULT_DATAITEMS Message naming that node as removed.
   The connection may end at any moment: with C03 ("only complete Messages are dispatched") a cut after any byte prefix is
   a cut between two commands, i.e. [detach] applied to a reachable state. *)
From Coq Require Import List NArith ZArith Bool Arith Lia.
From Muscle Require Import Refl.Base Refl.BaseProofs Refl.Tree Refl.TreeProofs Refl.Matcher Refl.MatcherProofs
     Refl.Traverse Refl.TraverseSpec Refl.Session Refl.Server Refl.ServerProofs Refl.IsoModel Refl.IsoBase Refl.IsoTold.
Import ListNotations.

Section Detach.
Context {M : MatchOps} {L : MatchLaws M}.
Variable fx : fixes.
Hypothesis guard_on : fx_guard fx = true.

(* the tree Cleanup leaves behind, written without reference to the code *)
Definition tree_without (t : tree) (ss : session) : tree :=
  let t1 := prune_tree t (session_dir ss) in
  let t2 := if has_children t1 [s_host ss] then t1 else prune_tree t1 [s_host ss] in
  map (fun n => if matches_node (s_subs ss) (n_path n) None 0 then adj_node (s_id ss) cleanup_delta n else n) t2.

Lemma map_core_filter : forall (l l' : list session) s, map core l' = map core l ->
  map core (filter (fun x => negb (N.eqb (s_id x) s)) l') = map core (filter (fun x => negb (N.eqb (s_id x) s)) l).
Proof. intros l l' s. apply (filter_proj _ _ core _ (fun c => negb (N.eqb (fst (fst (fst c))) s))). reflexivity. Qed.

(* a session's host node exists (its directory does, and the tree is closed under parents) *)
Lemma host_of_session : forall B sv x, inv B sv -> In x (sv_sessions sv) -> has_node (sv_tree sv) [s_host x] = true.
Proof.
  intros B sv x I Hx. pose proof (inv_dirs_exist B sv x I Hx) as Hd. apply has_node_spec in Hd as [n [H1 H2]].
  destruct (inv_tree _ _ _ I) as [_ [_ Hpre]].
  destruct (Hpre n [s_host x] [s_name x] H1 H2) as [n' [H3 H4]]; [discriminate|]. apply has_node_spec. eauto.
Qed.

Lemma detach_shape : forall B sv s ss, inv B sv -> get_session sv s = Some ss ->
  sv_tree (detach fx sv s) = tree_without (sv_tree sv) ss /\
  map core (sv_sessions (detach fx sv s)) = map core (filter (fun x => negb (N.eqb (s_id x) s)) (sv_sessions sv)).
Proof.
  intros B sv s ss I Hss. unfold detach. rewrite Hss.
  assert (Hin : In ss (sv_sessions sv)) by (apply find_session_some in Hss; tauto).
  assert (Hid : s_id ss = s) by (apply find_session_some in Hss; tauto).
  pose proof (inv_dirs_exist B sv ss I Hin) as Hdir.
  rewrite (host_of_session B sv ss I Hin), Hdir.
  destruct (remove_subtree_spec sv s (session_dir ss) true (inv_tree _ _ _ I)) as [Ht1 Hs1]; [discriminate|].
  set (sv1 := remove_subtree sv s (session_dir ss) true) in *.
  assert (W1 : wf_tree (sv_tree sv1)) by (rewrite Ht1; apply wf_tree_prune, (inv_tree _ _ _ I)).
  match goal with |- context [push_all ?X] => set (sv2 := X) end.
  assert (H2 : sv_tree sv2 = (if has_children (prune_tree (sv_tree sv) (session_dir ss)) [s_host ss]
                              then prune_tree (sv_tree sv) (session_dir ss)
                              else prune_tree (prune_tree (sv_tree sv) (session_dir ss)) [s_host ss])
               /\ map core (sv_sessions sv2) = map core (sv_sessions sv)).
  { unfold sv2. rewrite Ht1. destruct (has_children (prune_tree (sv_tree sv) (session_dir ss)) [s_host ss]) eqn:Hch.
    - split; [exact Ht1|exact Hs1].
    - destruct (remove_subtree_spec sv1 s [s_host ss] true W1) as [Ht2 Hs2]; [discriminate|].
      split; [now rewrite Ht2, Ht1|congruence]. }
  destruct H2 as [Ht2 Hs2].
  destruct (push_all_core sv2) as [Ht3 Hs3]. set (sv3 := push_all sv2) in *.
  assert (W3 : wf_tree (sv_tree sv3)).
  { rewrite Ht3, Ht2. destruct (has_children (prune_tree (sv_tree sv) (session_dir ss)) [s_host ss]);
      repeat apply wf_tree_prune; apply (inv_tree _ _ _ I). }
  assert (Wm : wf_groups (m_groups (s_subs ss))) by (apply (inv_subs _ _ _ I ss Hin)).
  split.
  - cbn [sv_tree]. unfold tree_without. rewrite Hid. rewrite <- Ht2, <- Ht3.
    destruct (sv_tree sv3) as [|n0 t0] eqn:E3; [reflexivity|]. rewrite <- E3.
    apply (mark_nodes_spec fx guard_on); [rewrite E3; exact W3|exact Wm].
  - cbn [sv_sessions]. apply map_core_filter. congruence.
Qed.

(* ------------------------------------------------------------------ what the shape says *)

Lemma in_tree_without : forall t ss n', In n' (tree_without t ss) ->
  exists n, In n t /\ is_prefix (session_dir ss) (n_path n) = false /\
            n_path n' = n_path n /\ n_data n' = n_data n /\ tbl_without (s_id ss) (n_subs n') = tbl_without (s_id ss) (n_subs n).
Proof.
  intros t ss n' H. unfold tree_without in H. apply in_map_iff in H as [n [H1 H2]].
  assert (Hn : In n (prune_tree t (session_dir ss))).
  { destruct (has_children _ _); [exact H2|]. apply in_prune in H2. tauto. }
  apply in_prune in Hn as [Hn1 Hn2]. exists n. split; [exact Hn1|]. split; [exact Hn2|].
  subst n'. destruct (matches_node _ _ _ _); [|repeat split; reflexivity].
  unfold adj_node. cbn [n_path n_data n_subs]. repeat split; try reflexivity. apply tbl_without_adjust.
Qed.

(* DETACH, part 1: nothing at or below the departed session's directory is left *)
Theorem detach_subtree_gone : forall B sv s ss, inv B sv -> get_session sv s = Some ss ->
  forall n, In n (sv_tree (detach fx sv s)) -> is_prefix (session_dir ss) (n_path n) = false.
Proof.
  intros B sv s ss I Hss n Hn. destruct (detach_shape B sv s ss I Hss) as [Ht _]. rewrite Ht in Hn.
  apply in_tree_without in Hn as [n0 [_ [H2 [H3 _]]]]. now rewrite H3.
Qed.

(* DETACH, part 2: the departed session is no longer listed, everybody else is, unchanged *)
Theorem detach_sessions : forall B sv s ss, inv B sv -> get_session sv s = Some ss ->
  get_session (detach fx sv s) s = None /\
  map core (sv_sessions (detach fx sv s)) = map core (filter (fun x => negb (N.eqb (s_id x) s)) (sv_sessions sv)).
Proof.
  intros B sv s ss I Hss. split; [|apply (detach_shape B sv s ss I Hss)].
  unfold detach. rewrite Hss. unfold get_session. cbn [sv_sessions]. apply find_session_filter_self.
Qed.

(* DETACH, part 3: no subscriber table mentions the departed session *)
Theorem detach_no_marks : forall B sv s ss, small B -> inv B sv -> get_session sv s = Some ss ->
  forall n, In n (sv_tree (detach fx sv s)) -> ~ In s (map fst (n_subs n)) /\ tbl_get (n_subs n) s = 0%N.
Proof.
  intros B sv s ss HB I Hss n Hn.
  pose proof (detach_inv fx guard_on B sv s HB I) as I'.
  destruct (inv_marks _ _ _ I' n Hn) as [Hok Hget].
  assert (H0 : tbl_get (n_subs n) s = 0%N).
  { rewrite Hget. unfold count_for. destruct (detach_sessions B sv s ss I Hss) as [Hnone _]. now rewrite Hnone. }
  split; [|exact H0]. intros Hin. pose proof (tbl_in_get_pos _ _ Hok Hin). lia.
Qed.

(* DETACH, part 4: every remaining node is an old node outside the subtree, unchanged up to the departed session's mark *)
Theorem detach_rest_untouched : forall B sv s ss, inv B sv -> get_session sv s = Some ss ->
  forall n', In n' (sv_tree (detach fx sv s)) ->
  exists n, In n (sv_tree sv) /\ n_path n' = n_path n /\ n_data n' = n_data n /\
            tbl_without s (n_subs n') = tbl_without s (n_subs n).
Proof.
  intros B sv s ss I Hss n' Hn'. destruct (detach_shape B sv s ss I Hss) as [Ht _]. rewrite Ht in Hn'.
  assert (Hid : s_id ss = s) by (apply find_session_some in Hss; tauto).
  apply in_tree_without in Hn' as [n [H1 [_ [H3 [H4 H5]]]]]. rewrite Hid in H5. exists n. repeat split; assumption.
Qed.

(* Cleanup prunes the host node only if it has no child left: that removes this one node *)
Lemma prune_empty_host : forall t h (f : node -> bool), wf_tree t -> (forall n, n_path n = [h] -> f n = false) ->
  filter f (if has_children t [h] then t else prune_tree t [h]) = filter f t.
Proof.
  intros t h f W Hf. destruct (has_children t [h]) eqn:Hc; [reflexivity|]. unfold prune_tree. apply filter_absorb. intros n Hn Hfn.
  apply negb_true_iff. destruct (is_prefix [h] (n_path n)) eqn:E; [|reflexivity]. exfalso.
  apply is_prefix_spec in E as [r Hr]. destruct r as [|k r].
  - rewrite app_nil_r in Hr. rewrite (Hf n Hr) in Hfn. discriminate.
  - destruct W as [_ [_ Hpre]]. destruct (Hpre n ([h] ++ [k]) r Hn) as [c [Hc1 Hc2]].
    + rewrite Hr. now rewrite <- app_assoc.
    + discriminate.
    + exact (has_children_false _ _ c k Hc Hc1 Hc2).
Qed.

(* ... and every old node outside the subtree other than the host node is still there *)
Theorem detach_rest_kept : forall B sv s ss, inv B sv -> get_session sv s = Some ss ->
  forall n, In n (sv_tree sv) -> is_prefix (session_dir ss) (n_path n) = false -> n_path n <> [s_host ss] ->
  has_node (sv_tree (detach fx sv s)) (n_path n) = true.
Proof.
  intros B sv s ss I Hss n Hn Hout Hnh. destruct (detach_shape B sv s ss I Hss) as [Ht _]. rewrite Ht.
  unfold tree_without. rewrite has_node_map; [|intros x; destruct (matches_node _ _ _ _); reflexivity].
  set (t1 := prune_tree (sv_tree sv) (session_dir ss)).
  assert (H2 : In n (filter (fun m => negb (path_eqb (n_path m) [s_host ss])) t1)).
  { apply filter_In. split; [apply filter_In; split; [exact Hn|now rewrite Hout]|]. apply negb_true_iff. now apply path_eqb_neq. }
  rewrite <- (prune_empty_host t1 (s_host ss)) in H2.
  - apply filter_In in H2 as [H2 _]. apply has_node_spec. now exists n.
  - apply wf_tree_prune, (inv_tree _ _ _ I).
  - intros m Hm. now rewrite Hm, path_eqb_refl.
Qed.

(* DETACH, part 5: the host node goes iff it became empty, i.e. iff no other session lives on that host *)
Theorem detach_host : forall B sv s ss, inv B sv -> get_session sv s = Some ss ->
  has_node (sv_tree (detach fx sv s)) [s_host ss] = true <->
  exists x, In x (sv_sessions sv) /\ s_id x <> s /\ s_host x = s_host ss.
Proof.
  intros B sv s ss I Hss. destruct (detach_shape B sv s ss I Hss) as [Ht _]. rewrite Ht.
  assert (Hin : In ss (sv_sessions sv)) by (apply find_session_some in Hss; tauto).
  assert (Hid : s_id ss = s) by (apply find_session_some in Hss; tauto).
  unfold tree_without. rewrite has_node_map; [|intros x; destruct (matches_node _ _ _ _); reflexivity].
  set (t1 := prune_tree (sv_tree sv) (session_dir ss)).
  assert (W1 : wf_tree t1) by (apply wf_tree_prune, (inv_tree _ _ _ I)).
  split.
  - intros H. destruct (has_children t1 [s_host ss]) eqn:Hch; [|rewrite has_node_prune_self in H; discriminate].
    unfold has_children in Hch. destruct (children t1 [s_host ss]) as [|c cs] eqn:Ec; [discriminate|].
    assert (Hc : In c (children t1 [s_host ss])) by (rewrite Ec; now left).
    apply children_in in Hc as [Hc1 [k Hk]]. apply in_prune in Hc1 as [Hc1 Hc2].
    destruct (inv_depth2 _ _ _ I c Hc1) as [x [Hx1 Hx2]]; [rewrite Hk; reflexivity|].
    exists x. split; [exact Hx1|]. rewrite Hk in Hx2.
    assert (Hh : s_host x = s_host ss) by (unfold session_dir in Hx2; cbn in Hx2; congruence).
    split; [|exact Hh]. intros E. assert (x = ss) by (apply (session_unique sv s ss x (inv_ids _ _ _ I) Hss Hx1 E)). subst x.
    rewrite Hk in Hc2. rewrite <- Hx2, is_prefix_refl in Hc2. discriminate.
  - intros [x [Hx1 [Hx2 Hx3]]].
    pose proof (inv_dirs_exist B sv x I Hx1) as Hdx. apply has_node_spec in Hdx as [c [Hc1 Hc2]].
    assert (Hne : session_dir x <> session_dir ss).
    { intros E. apply Hx2. assert (x = ss); [|now subst].
      apply (NoDup_map_inj _ _ session_dir (sv_sessions sv)); auto. apply (inv_dirs_nodup _ _ _ I). }
    assert (Hc3 : In c t1).
    { unfold t1, prune_tree. apply filter_In. split; [exact Hc1|]. apply negb_true_iff.
      destruct (is_prefix (session_dir ss) (n_path c)) eqn:E; [|reflexivity]. exfalso. apply Hne.
      rewrite Hc2 in E. symmetry. apply is_prefix_same_length; [exact E|reflexivity]. }
    assert (Hch : has_children t1 [s_host ss] = true).
    { unfold has_children. assert (Hcc : In c (children t1 [s_host ss])).
      { apply children_in. split; [exact Hc3|]. exists (s_name x). rewrite Hc2. unfold session_dir. now rewrite Hx3. }
      destruct (children t1 [s_host ss]); [destruct Hcc|reflexivity]. }
    rewrite Hch. destruct W1 as [_ [_ Hpre]].
    destruct (Hpre c [s_host ss] [s_name x] Hc3) as [h [Hh1 Hh2]].
    + rewrite Hc2. unfold session_dir. now rewrite Hx3.
    + discriminate.
    + apply has_node_spec. eauto.
Qed.

(* ------------------------------------------------------------------ DETACH, part 6: the subscribers are told *)

Definition same_core_sessions (sv sv' : server) : Prop := map core (sv_sessions sv') = map core (sv_sessions sv).

Lemma sessions_core_session : forall sv sv' t st, same_core_sessions sv sv' -> get_session sv t = Some st ->
  exists st', get_session sv' t = Some st' /\ s_subs st' = s_subs st /\ s_id st' = s_id st.
Proof.
  intros sv sv' t st Hc Hs. unfold get_session in *. pose proof (find_session_core _ _ t Hc) as H. rewrite Hs in H.
  destruct (find_session (sv_sessions sv') t) as [st'|]; [|contradiction]. exists st'. split; [reflexivity|]. unfold core in H. split; congruence.
Qed.

Lemma told_set_tree_ : forall sv tr t p, told sv t p -> told (set_tree sv tr) t p.
Proof. intros sv tr t p H. exact H. Qed.

(* the condition under which session st is owed a removal notice for a node (NodeChanged, 318-355): it is marked on the node,
   and if it uses filters at all, one of its subscriptions accepts the node's current payload *)
Definition owed (st : session) (n : node) : Prop :=
  In (s_id st) (map fst (n_subs n)) /\
  (N.ltb 0 (m_nfilters (s_subs st)) = true -> matches_node (s_subs st) (n_path n) (Some (n_data n)) 0 = true).

(* NotifySubscribersThatNodeChanged(node, its data, being removed) called on session by_ tells every other owed subscriber *)
Lemma notify_removed_tells : forall sv by_ n t st,
  find_node (sv_tree sv) (n_path n) = Some n -> get_session sv t = Some st -> t <> by_ -> owed st n ->
  told (notify_changed sv by_ (n_path n) (n_data n) (Some (n_data n)) true) t (n_path n).
Proof.
  intros sv by_ n t st Hf Hs Hne [Hin Hflt]. unfold notify_changed. rewrite Hf.
  assert (Hid : s_id st = t) by (eapply get_session_id; eassumption). rewrite Hid in Hin.
  assert (G : forall (l : list (sid * N)) sv', same_core sv sv' -> In t (map fst l) ->
              told (fold_left (fun sv'0 (kc : sid * N) => if N.eqb (fst kc) by_ then sv'0
                                             else node_changed sv'0 (fst kc) (n_path n) (n_data n) (Some (n_data n)) true) l sv') t (n_path n)).
  { induction l as [|kc l IH]; intros sv' Hc Hl; [destruct Hl|]. cbn [fold_left].
    destruct Hl as [Hl|Hl].
    - rewrite Hl. assert (N.eqb t by_ = false) as -> by now apply N.eqb_neq. apply told_notify_fold.
      destruct (sessions_core_session sv sv' t st (proj2 Hc) Hs) as [st' [Hs' [Hsub _]]].
      eapply node_changed_tells; [exact Hs'|]. rewrite Hsub. exact Hflt.
    - apply IH; [|exact Hl]. destruct (N.eqb _ _); [exact Hc|]. eapply same_core_trans; [exact Hc|apply node_changed_core]. }
  apply G; [apply same_core_refl|exact Hin].
Qed.

Lemma remove_node_keeps : forall t q n, In n t -> n_path n <> q -> In n (remove_node t q).
Proof.
  intros t q n Hn Hq. unfold remove_node. apply filter_In. split; [exact Hn|]. apply negb_true_iff. now apply path_eqb_neq.
Qed.

Lemma remove_node_nodup : forall t q, NoDup (map n_path t) -> NoDup (map n_path (remove_node t q)).
Proof. intros t q H. unfold remove_node. now apply NoDup_map_filter. Qed.

Lemma told_remove_fold : forall by_ (notify : bool) t q (l : list path) sv, told sv t q ->
  told (fold_left (fun sv' q0 => match find_node (sv_tree sv') q0 with
                                 | None => sv'
                                 | Some n => let sv1 := if notify then notify_changed sv' by_ q0 (n_data n) (Some (n_data n)) true else sv' in
                                             set_tree sv1 (remove_node (sv_tree sv1) q0)
                                 end) l sv) t q.
Proof.
  intros by_ notify t q l. induction l as [|x l IH]; intros sv H; cbn [fold_left]; [exact H|]. apply IH.
  destruct (find_node _ _); [|exact H]. apply told_set_tree_. destruct notify; [now apply told_notify_changed|exact H].
Qed.

Lemma told_remove_subtree : forall sv by_ p notify t q, told sv t q -> told (remove_subtree sv by_ p notify) t q.
Proof. intros. now apply told_remove_fold. Qed.

(* DataNode::RemoveChild(.., notify, recurse): every owed subscriber of every node of the subtree is told *)
Lemma remove_subtree_tells : forall sv by_ p n t st,
  wf_tree (sv_tree sv) -> p <> [] -> In n (sv_tree sv) -> is_prefix p (n_path n) = true ->
  get_session sv t = Some st -> t <> by_ -> owed st n ->
  told (remove_subtree sv by_ p true) t (n_path n).
Proof.
  intros sv by_ p n t st Hwf Hp Hn Hpre Hs Hne Ho. unfold remove_subtree.
  assert (Hord : In (n_path n) (removal_order (S (length (sv_tree sv))) (sv_tree sv) p)).
  { apply pmem_spec. rewrite removal_order_mem; auto. }
  revert Hord. generalize (removal_order (S (length (sv_tree sv))) (sv_tree sv) p). intros l.
  set (step := fun (sv' : server) (q : path) =>
                 match find_node (sv_tree sv') q with
                 | Some n0 => set_tree (notify_changed sv' by_ q (n_data n0) (Some (n_data n0)) true)
                                       (remove_node (sv_tree (notify_changed sv' by_ q (n_data n0) (Some (n_data n0)) true)) q)
                 | None => sv'
                 end).
  change (In (n_path n) l -> told (fold_left step l sv) t (n_path n)).
  pose proof (told_remove_fold by_ true t (n_path n)) as Mono.
  assert (G : forall sv', same_core_sessions sv sv' -> NoDup (map n_path (sv_tree sv')) -> In n (sv_tree sv') ->
              In (n_path n) l -> told (fold_left step l sv') t (n_path n)).
  { induction l as [|q l IH]; intros sv' Hc Hnd Hin Hl; [destruct Hl|]. cbn [fold_left].
    destruct (path_eqb q (n_path n)) eqn:Eq.
    - apply path_eqb_eq in Eq. subst q. apply Mono. unfold step.
      rewrite (find_node_in _ n Hnd Hin). apply told_set_tree_.
      destruct (sessions_core_session sv sv' t st Hc Hs) as [st' [Hs' [Hsub Hid']]].
      apply (notify_removed_tells sv' by_ n t st'); [now apply find_node_in|exact Hs'|exact Hne|].
      destruct Ho as [Ho1 Ho2]. split; [now rewrite Hid'|now rewrite Hsub].
    - apply path_eqb_neq in Eq. destruct Hl as [Hl|Hl]; [contradiction|].
      unfold step at 2. destruct (find_node (sv_tree sv') q) as [n0|].
      + destruct (notify_changed_core sv' by_ q (n_data n0) (Some (n_data n0)) true) as [Ht Hss].
        apply IH; [| | |exact Hl]; cbn [sv_tree sv_sessions set_tree]; rewrite ?Ht.
        * unfold same_core_sessions in *. cbn [sv_sessions set_tree]. congruence.
        * now apply remove_node_nodup.
        * apply remove_node_keeps; [exact Hin|congruence].
      + now apply IH. }
  apply G; [reflexivity|apply Hwf|exact Hn].
Qed.

(* DETACH, part 6: every other session that is owed a notice for a node of the departed session's subtree holds a
   PR_RESULT_DATAITEMS Message (handed to its gateway or still pending) that lists the node as removed *)
Theorem detach_tells : forall B sv s ss n t st, inv B sv -> get_session sv s = Some ss ->
  In n (sv_tree sv) -> is_prefix (session_dir ss) (n_path n) = true ->
  t <> s -> get_session sv t = Some st -> owed st n ->
  told (detach fx sv s) t (n_path n).
Proof.
  intros B sv s ss n t st I Hss Hn Hpre Hne Hst Ho. unfold detach. rewrite Hss.
  assert (Hin : In ss (sv_sessions sv)) by (apply find_session_some in Hss; tauto).
  pose proof (inv_dirs_exist B sv ss I Hin) as Hdir.
  rewrite (host_of_session B sv ss I Hin), Hdir.
  assert (T1 : told (remove_subtree sv s (session_dir ss) true) t (n_path n)).
  { apply (remove_subtree_tells sv s (session_dir ss) n t st); auto; [apply (inv_tree _ _ _ I)|discriminate]. }
  set (sv1 := remove_subtree sv s (session_dir ss) true) in *.
  match goal with |- context [push_all ?X] => assert (T2 : told X t (n_path n)) end.
  { destruct (has_children _ _); [exact T1|now apply told_remove_subtree]. }
  match goal with |- context [push_all ?X] => set (sv2 := X) in * end.
  pose proof (told_push_all sv2 t (n_path n) T2) as T3.
  destruct T3 as [s3 [Hs3 Ht3]]. exists s3. split; [|exact Ht3].
  unfold get_session in *. cbn [sv_sessions]. rewrite find_session_filter; [exact Hs3|congruence].
Qed.

End Detach.
