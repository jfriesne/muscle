(* Refl/BoundedCost.v -- C07: cost accounting over the handlers of the shared server model (Refl/Server.v).
   Every item (a removed-string or a value) of every PR_RESULT_DATAITEMS Message is put there by one call of
   NodeChangedAux or GetDataCallback; [tw] counts the items held by all sessions (pending Message + Messages handed
   to the gateway), [SZ] the nodes and their subscriber-table entries, [NT] the nodes.  This file bounds, handler by
   handler, how much one call can add to each ([step_ok]), on states with distinct session ids and distinct node paths
   ([good_sv]).

   First: how often a traversal calls its callback.  For EVERY callback (whatever depth it answers), every pattern set,
   guard and filter setting, on a tree whose node paths are distinct, DoTraversal started at x calls the callback at most
   once per node strictly below x; so a measure of the accumulator that one call raises by at most one is raised by at
   most the number of nodes.  (No law of the clause matcher is needed: per node the code checks each child at most once
   -- the iteration path by construction, the hash-lookup path through `alreadyDid` -- and calls back / descends at most
   once per child through its `matched` / `recursed` flags.) *)
From Coq Require Import List NArith ZArith Bool Arith Lia.
From Muscle Require Import Refl.Base Refl.BaseProofs Refl.Tree Refl.TreeProofs Refl.Matcher Refl.Traverse
  Refl.TraverseTheorems Refl.Session Refl.Server Refl.ServerProofs Refl.BoundedSpec Refl.BoundedProofs Refl.BoundedInv
  Refl.BoundedLoops.
Import ListNotations.

(* nodes at q or below *)
Definition cnt (t : tree) (q : path) : nat := length (filter (fun n => is_prefix q (n_path n)) t).

Lemma cnt_cons : forall a t q, cnt (a :: t) q = Nat.b2n (is_prefix q (n_path a)) + cnt t q.
Proof. intros a t q. unfold cnt. cbn [filter]. destruct (is_prefix q (n_path a)); reflexivity. Qed.

Lemma desc_cons : forall a t x, desc (a :: t) x = Nat.b2n (under x (n_path a)) + desc t x.
Proof. intros a t x. unfold desc. cbn [filter]. destruct (under x (n_path a)); reflexivity. Qed.

Lemma under_is_prefix : forall q p, under q p = true -> is_prefix q p = true.
Proof. intros q p H. apply under_spec in H. destruct H as [x [r H]]. apply is_prefix_spec. exists (x :: r). exact H. Qed.

(* a node of the tree and everything below it *)
Lemma cnt_ge : forall t c, In c t -> 1 + desc t (n_path c) <= cnt t (n_path c).
Proof.
  intros t c Hin. unfold desc, cnt.
  pose proof (filter_length_lt node (fun n => under (n_path c) (n_path n)) (fun n => is_prefix (n_path c) (n_path n)) t c) as H.
  cbv beta in H. specialize (H (fun x Hx => under_is_prefix _ _ Hx) Hin).
  assert (Hp : is_prefix (n_path c) (n_path c) = true) by (apply is_prefix_spec; exists []; rewrite app_nil_r; reflexivity).
  specialize (H Hp (under_not_self _)). lia.
Qed.

(* distinct children of x *)
Definition good (x : path) (D : list path) : Prop := NoDup D /\ forall q, In q D -> exists k, q = x ++ [k].

Lemma good_nil : forall x, good x [].
Proof. intros x. split; [constructor|intros q []]. Qed.

Lemma child_prefix_unique : forall x k k' p, is_prefix (x ++ [k]) p = true -> is_prefix (x ++ [k']) p = true -> k = k'.
Proof.
  intros x k k' p H1 H2. apply is_prefix_spec in H1. apply is_prefix_spec in H2.
  destruct H1 as [r1 H1]. destruct H2 as [r2 H2]. rewrite H1 in H2. rewrite <- !app_assoc in H2.
  apply app_inv_head in H2. cbn in H2. inversion H2. reflexivity.
Qed.

Lemma no_other_prefix : forall x k p D,
  is_prefix (x ++ [k]) p = true -> (forall q, In q D -> exists k', q = x ++ [k']) -> ~ In (x ++ [k]) D ->
  list_sum (map (fun q => Nat.b2n (is_prefix q p)) D) = 0.
Proof.
  intros x k p D E. induction D as [|q D IH]; intros Hch Hnotin; cbn [map]; rewrite ?list_sum_cons; [reflexivity|].
  destruct (is_prefix q p) eqn:E'.
  - exfalso. destruct (Hch q (or_introl eq_refl)) as [k' Hk']. subst q.
    rewrite (child_prefix_unique x k k' p E E') in Hnotin. apply Hnotin. left. reflexivity.
  - change (Nat.b2n false) with 0. apply IH.
    + intros q0 H0. apply Hch. right. exact H0.
    + intros Hin. apply Hnotin. right. exact Hin.
Qed.

Lemma prefix_sum_le : forall x D p, good x D ->
  list_sum (map (fun q => Nat.b2n (is_prefix q p)) D) <= Nat.b2n (under x p).
Proof.
  intros x D p. induction D as [|q D IH]; intros [Hnd Hch]; cbn [map]; rewrite ?list_sum_cons.
  - apply Nat.le_0_l.
  - inversion Hnd as [|? ? Hnotin Hnd']; subst.
    assert (HgD : good x D) by (split; [exact Hnd'|intros q' Hq'; apply Hch; right; exact Hq']).
    destruct (is_prefix q p) eqn:E; [change (Nat.b2n true) with 1|change (Nat.b2n false) with 0].
    + destruct (Hch q (or_introl eq_refl)) as [k Hk]. subst q.
      assert (Hu : under x p = true).
      { apply is_prefix_spec in E. destruct E as [r E]. apply under_spec. exists k, r. rewrite E, <- app_assoc. reflexivity. }
      rewrite Hu. change (Nat.b2n true) with 1.
      rewrite (no_other_prefix x k p D E (proj2 HgD) Hnotin). lia.
    + specialize (IH HgD). lia.
Qed.

Lemma list_sum_map_add : forall (A : Type) (f g : A -> nat) (l : list A),
  list_sum (map (fun a => f a + g a) l) = list_sum (map f l) + list_sum (map g l).
Proof. intros A f g l. induction l as [|a l IH]; cbn [map]; rewrite ?list_sum_cons; [reflexivity|lia]. Qed.

(* the subtrees of distinct children of x are disjoint parts of what lies below x *)
Lemma sum_cnt_le : forall t x D, good x D -> list_sum (map (cnt t) D) <= desc t x.
Proof.
  induction t as [|a t IH]; intros x D Hg.
  - unfold cnt, desc. cbn [filter length]. induction D as [|q D IHD]; cbn [map]; rewrite ?list_sum_cons; [cbn; lia|].
    apply IHD. destruct Hg as [Ha Hb]. split; [inversion Ha; assumption|intros q0 H0; apply Hb; right; exact H0].
  - rewrite desc_cons.
    rewrite (map_ext (cnt (a :: t)) (fun q => Nat.b2n (is_prefix q (n_path a)) + cnt t q)) by (intros q; apply cnt_cons).
    rewrite list_sum_map_add. pose proof (prefix_sum_le x D (n_path a) Hg). specialize (IH x D Hg). lia.
Qed.

Section TravCost.
Context {M : MatchOps}.
Variable A : Type.
Variable cb : A -> node -> A * Z.
Variable t : tree.
Variable m : matcher.
Variable rd : nat.
Variable uf gf : bool.
Variable mu : A -> nat.
Variable Q : A -> Prop.
Hypothesis Hcb : forall acc n, Q acc -> Q (fst (cb acc n)) /\ mu (fst (cb acc n)) <= mu acc + 1.
Hypothesis HND : NoDup (map n_path t).

Definition rec_ok (rec : path -> A -> A * Z) : Prop :=
  forall p acc, Q acc -> Q (fst (rec p acc)) /\ mu (fst (rec p acc)) <= mu acc + desc t p.

Lemma check_entries_cost : forall (rec : path -> A -> A * Z), rec_ok rec ->
  forall es child rel known idx matched recursed acc, Q acc ->
  let r := check_entries A cb m rd uf gf rec child rel known es idx matched recursed acc in
  Q (fst r) /\ mu (fst r) <= mu acc + (if matched then 0 else 1) + (if recursed then 0 else desc t (n_path child)).
Proof.
  intros rec Hrec es. induction es as [|e es IH]; intros child rel known idx matched recursed acc HQ; cbn [check_entries]; cbv zeta.
  - cbn [fst]. split; [exact HQ|lia].
  - outer_if; [|apply IH; exact HQ].
    outer_if.
    + destruct matched; [apply (IH child rel known (S idx) true recursed acc HQ)|].
      outer_if; [|apply (IH child rel known (S idx) false recursed acc HQ)].
      destruct (Hcb acc child HQ) as [HQ1 Hm1]. destruct (cb acc child) as [acc1 nd]. cbn [fst] in *.
      outer_if; [cbn [fst]; split; [exact HQ1|destruct recursed; lia]|].
      destruct recursed; [cbn [fst]; split; [exact HQ1|lia]|].
      destruct (IH child rel known (S idx) true false acc1 HQ1) as [H1 H2]. split; [exact H1|]. cbv zeta in H2. lia.
    + destruct recursed; [apply (IH child rel known (S idx) matched true acc HQ)|].
      destruct (Hrec (n_path child) acc HQ) as [HQ1 Hm1]. destruct (rec (n_path child) acc) as [acc1 nd]. cbn [fst] in *.
      outer_if; [cbn [fst]; split; [exact HQ1|destruct matched; lia]|].
      destruct matched; [cbn [fst]; split; [exact HQ1|lia]|].
      destruct (IH child rel known (S idx) false true acc1 HQ1) as [H1 H2]. split; [exact H1|]. cbv zeta in H2. lia.
Qed.

Lemma check_child_cost : forall (rec : path -> A -> A * Z), rec_ok rec ->
  forall child rel known acc, Q acc -> In child t ->
  let r := check_child A cb m rd uf gf rec child rel known acc in
  Q (fst r) /\ mu (fst r) <= mu acc + cnt t (n_path child).
Proof.
  intros rec Hrec child rel known acc HQ Hin. unfold check_child.
  destruct (check_entries_cost rec Hrec (active m rel) child rel known 0 false false acc HQ) as [H1 H2].
  cbv zeta in *. split; [exact H1|]. pose proof (cnt_ge t child Hin). lia.
Qed.

Lemma iter_children_cost : forall (rec : path -> A -> A * Z), rec_ok rec ->
  forall cs rel acc, Q acc -> (forall c, In c cs -> In c t) ->
  let r := iter_children A cb m rd uf gf rec rel cs acc in
  Q (fst r) /\ mu (fst r) <= mu acc + list_sum (map (cnt t) (map n_path cs)).
Proof.
  intros rec Hrec cs. induction cs as [|c cs IH]; intros rel acc HQ Hin; cbn [iter_children map]; rewrite ?list_sum_cons.
  - cbn [fst]. split; [exact HQ|lia].
  - destruct (check_child_cost rec Hrec c rel None acc HQ (Hin c (or_introl eq_refl))) as [H1 H2]. cbv zeta in *.
    destruct (check_child A cb m rd uf gf rec c rel None acc) as [acc1 [d|]]; cbn [fst] in *.
    + split; [exact H1|lia].
    + destruct (IH rel acc1 H1 (fun c' Hc' => Hin c' (or_intror Hc'))) as [H3 H4]. cbv zeta in *. split; [exact H3|lia].
Qed.

Notation Wc D := (list_sum (map (cnt t) D)).

Lemma lookup_keys_cost : forall (rec : path -> A -> A * Z), rec_ok rec ->
  forall x ks rel idx did acc, Q acc -> good x did ->
  match lookup_keys A cb t m rd uf gf rec x rel idx ks did acc with
  | (acc', did', None) => Q acc' /\ good x did' /\ mu acc' + Wc did <= mu acc + Wc did'
  | (acc', _, Some _) => Q acc' /\ exists D, good x D /\ mu acc' + Wc did <= mu acc + Wc D
  end.
Proof.
  intros rec Hrec x ks. induction ks as [|k ks IH]; intros rel idx did acc HQ Hg; cbn [lookup_keys].
  - split; [exact HQ|]. split; [exact Hg|lia].
  - destruct (get_child t x k) as [c|] eqn:Hc; [|apply IH; assumption].
    unfold get_child in Hc. apply find_node_some in Hc. destruct Hc as [Hin Hp].
    destruct (path_mem (n_path c) did) eqn:Hm; [apply IH; assumption|].
    destruct (check_child_cost rec Hrec c rel (Some idx) acc HQ Hin) as [H1 H2]. cbv zeta in *.
    assert (Hg' : good x (n_path c :: did)).
    { destruct Hg as [Ha Hb]. split.
      - constructor; [|exact Ha]. intros Hi. apply path_mem_in in Hi. congruence.
      - intros q [Hq|Hq]; [exists k; congruence|apply Hb; exact Hq]. }
    destruct (check_child A cb m rd uf gf rec c rel (Some idx) acc) as [acc1 [d|]]; cbn [fst] in *.
    + split; [exact H1|]. exists (n_path c :: did). split; [exact Hg'|]. cbn [map]; rewrite ?list_sum_cons. lia.
    + specialize (IH rel idx (n_path c :: did) acc1 H1 Hg').
      destruct (lookup_keys A cb t m rd uf gf rec x rel idx ks (n_path c :: did) acc1) as [[acc' did'] [d|]].
      * destruct IH as [Ha [D [Hb Hc]]]. split; [exact Ha|]. exists D. split; [exact Hb|]. cbn [map] in Hc; rewrite ?list_sum_cons in Hc. lia.
      * destruct IH as [Ha [Hb Hc]]. split; [exact Ha|]. split; [exact Hb|]. cbn [map] in Hc; rewrite ?list_sum_cons in Hc. lia.
Qed.

Lemma lookup_entries_cost : forall (rec : path -> A -> A * Z), rec_ok rec ->
  forall x es rel idx did acc, Q acc -> good x did ->
  let r := lookup_entries A cb t m rd uf gf rec x rel es idx did acc in
  Q (fst r) /\ exists D, good x D /\ mu (fst r) + Wc did <= mu acc + Wc D.
Proof.
  intros rec Hrec x es. induction es as [|e es IH]; intros rel idx did acc HQ Hg; cbn [lookup_entries]; cbv zeta.
  - cbn [fst]. split; [exact HQ|]. exists did. split; [exact Hg|lia].
  - match goal with |- context [lookup_keys A cb t m rd uf gf rec x rel idx ?ks did acc] =>
      pose proof (lookup_keys_cost rec Hrec x ks rel idx did acc HQ Hg) as Hk;
      destruct (lookup_keys A cb t m rd uf gf rec x rel idx ks did acc) as [[acc1 did1] [d|]]
    end.
    + cbn [fst]. destruct Hk as [Ha [D [Hb Hc]]]. split; [exact Ha|]. exists D. split; assumption.
    + destruct Hk as [Ha [Hb Hc]].
      destruct (IH rel (S idx) did1 acc1 Ha Hb) as [H3 [D [H4 H5]]]. cbv zeta in *.
      split; [exact H3|]. exists D. split; [exact H4|lia].
Qed.

Lemma trav_cost : forall fuel, rec_ok (trav A cb t m rd uf gf fuel).
Proof.
  induction fuel as [|f IH]; intros x acc HQ; cbn [trav].
  - cbn [fst]. split; [exact HQ|lia].
  - cbv zeta. outer_if.
    + assert (Hin : forall c, In c (children t x) -> In c t) by (intros c Hc; unfold children in Hc; apply filter_In in Hc; apply Hc).
      destruct (iter_children_cost (trav A cb t m rd uf gf f) IH (children t x) (length x - rd) acc HQ Hin) as [H1 H2]. cbv zeta in *.
      assert (Hg : good x (map n_path (children t x))).
      { split; [apply children_nodup; exact HND|].
        intros q Hq. apply in_map_iff in Hq. destruct Hq as [c [Hc1 Hc2]]. apply children_in in Hc2.
        destruct Hc2 as [_ [k Hk]]. exists k. congruence. }
      pose proof (sum_cnt_le t x _ Hg) as Hs.
      destruct (iter_children A cb m rd uf gf (trav A cb t m rd uf gf f) (length x - rd) (children t x) acc) as [acc1 [d|]];
        cbn [fst] in *; (split; [exact H1|lia]).
    + destruct (lookup_entries_cost (trav A cb t m rd uf gf f) IH x (active m (length x - rd)) (length x - rd) 0 [] acc HQ (good_nil x))
        as [H1 [D [H2 H3]]]. cbv zeta in *.
      pose proof (sum_cnt_le t x D H2) as Hs. cbn [map] in H3; rewrite ?list_sum_cons in H3.
      destruct (lookup_entries A cb t m rd uf gf (trav A cb t m rd uf gf f) x (length x - rd) (active m (length x - rd)) 0 [] acc)
        as [acc1 [d|]]; cbn [fst] in *; (split; [exact H1|lia]).
Qed.

End TravCost.

(* DoTraversal calls its callback at most |tree| times *)
Theorem do_traversal_cost : forall {M : MatchOps} (A : Type) (cb : A -> node -> A * Z) (mu : A -> nat) (Q : A -> Prop),
  (forall acc n, Q acc -> Q (fst (cb acc n)) /\ mu (fst (cb acc n)) <= mu acc + 1) ->
  forall t m root uf gf acc, NoDup (map n_path t) -> Q acc ->
  Q (do_traversal cb t m root uf gf acc) /\ mu (do_traversal cb t m root uf gf acc) <= mu acc + length t.
Proof.
  intros M A cb mu Q Hcb t m root uf gf acc HND HQ. unfold do_traversal.
  destruct (trav_cost A cb t m (length root) uf gf mu Q Hcb HND (S (max_clauses m)) root acc HQ) as [H1 H2].
  split; [exact H1|]. pose proof (filter_length node (fun n => under root (n_path n)) t). unfold desc in H2. lia.
Qed.

Lemma NoDup_app_one : forall (A : Type) (l : list A) (x : A), NoDup l -> ~ In x l -> NoDup (l ++ [x]).
Proof.
  intros A l x Hnd Hn. apply NoDup_app_intro; [exact Hnd|constructor; [apply in_nil|constructor]|].
  intros a Ha [Hx|Hx]; [subst a; exact (Hn Ha)|exact Hx].
Qed.

Section Cost.
Context {M : MatchOps}.

Definition wopt (o : option ditems) : nat := match o with Some d => di_weight d | None => 0 end.
Definition outw (l : list ditems) : nat := list_sum (map di_weight l).
Definition sw (x : session) : nat := wopt (s_pending x) + outw (s_out x).
Definition tw (sv : server) : nat := list_sum (map sw (sv_sessions sv)).

Definition nw (n : node) : nat := 1 + length (n_subs n).
Definition SZ (t : tree) : nat := list_sum (map nw t).
Definition NS (sv : server) : nat := length (sv_sessions sv).
Definition paths (sv : server) : list path := map n_path (sv_tree sv).

Definition good_sv (sv : server) : Prop := NoDup (ids sv) /\ NoDup (paths sv).

Lemma NS_ids : forall sv sv', ids sv' = ids sv -> NS sv' = NS sv.
Proof. intros sv sv' H. unfold NS. rewrite <- (map_length s_id), <- (map_length s_id (sv_sessions sv)). exact (f_equal (@length sid) H). Qed.

Lemma outw_snoc : forall a r, outw (a ++ [r]) = outw a + di_weight r.
Proof. intros a r. unfold outw. rewrite map_app, list_sum_app. cbn. lia. Qed.

Lemma sw_push_pending : forall x, sw (push_pending x) = sw x.
Proof.
  intros x. unfold push_pending. destruct (s_pending x) as [d|] eqn:E; [|reflexivity].
  unfold sw. cbn [set_pending send s_pending s_out wopt]. rewrite E, outw_snoc. cbn [wopt]. lia.
Qed.

Lemma tw_push_all : forall sv, tw (push_all sv) = tw sv.
Proof.
  intros sv. unfold push_all. destruct (sv_dirty sv); [|reflexivity].
  unfold tw. cbn [sv_sessions]. rewrite map_map. f_equal. apply map_ext. intros x. apply sw_push_pending.
Qed.

Lemma upd_absent : forall (l : list session) s f, ~ In s (map s_id l) ->
  map (fun x => if N.eqb (s_id x) s then f x else x) l = l.
Proof.
  induction l as [|x l IH]; intros s f H; cbn [map]; [reflexivity|].
  cbn [map In] in H. destruct (N.eqb (s_id x) s) eqn:E.
  - apply N.eqb_eq in E. exfalso. apply H. left. exact E.
  - rewrite IH; [reflexivity|]. intros Hin. apply H. right. exact Hin.
Qed.

Lemma tw_upd : forall sv s ss f, NoDup (ids sv) -> get_session sv s = Some ss -> (forall x, s_id (f x) = s_id x) ->
  tw (upd_session sv s f) + sw ss = tw sv + sw (f ss).
Proof.
  intros sv s ss f Hnd Hs Hf. unfold tw, upd_session, get_session, ids in *. cbn [sv_sessions].
  induction (sv_sessions sv) as [|x l IH]; cbn [find_session map] in *; [discriminate|].
  rewrite !list_sum_cons. inversion Hnd as [|? ? Hn Hd]; subst.
  destruct (N.eqb (s_id x) s) eqn:E.
  - inversion Hs; subst x. apply N.eqb_eq in E. rewrite upd_absent by (rewrite <- E; exact Hn). lia.
  - specialize (IH Hd Hs). lia.
Qed.

Lemma tw_upd_le : forall sv s ss f k, NoDup (ids sv) -> get_session sv s = Some ss -> (forall x, s_id (f x) = s_id x) ->
  sw (f ss) <= sw ss + k -> tw (upd_session sv s f) <= tw sv + k.
Proof. intros sv s ss f k Hnd Hs Hf Hk. pose proof (tw_upd sv s ss f Hnd Hs Hf). lia. Qed.

Lemma tw_set_pending : forall sv s ss pd k, NoDup (ids sv) -> get_session sv s = Some ss ->
  wopt pd <= wopt (s_pending ss) + k -> tw (upd_session sv s (fun x => set_pending x pd)) <= tw sv + k.
Proof.
  intros sv s ss pd k Hnd Hs Hk. apply (tw_upd_le sv s ss); [exact Hnd|exact Hs|reflexivity|].
  unfold sw. cbn [set_pending s_pending s_out]. lia.
Qed.

Lemma sets_weight_add : forall l p v, sets_weight (sets_add l p v) = sets_weight l + 1.
Proof.
  induction l as [|[q vs] l IH]; intros p v; unfold sets_weight in *; cbn [sets_add map snd].
  - rewrite !list_sum_cons. cbn. lia.
  - destruct (path_eqb q p); cbn [map snd]; rewrite !list_sum_cons.
    + rewrite app_length. cbn. lia.
    + rewrite IH. lia.
Qed.

Lemma di_weight_add_set : forall d p v, di_weight (di_add_set d p v) = di_weight d + 1.
Proof. intros d p v. unfold di_weight, di_add_set. cbn [di_removed di_sets]. rewrite sets_weight_add. lia. Qed.

Lemma di_weight_add_removed : forall d p, di_weight (di_add_removed d p) = di_weight d + 1.
Proof. intros d p. unfold di_weight, di_add_removed. cbn [di_removed di_sets]. rewrite app_length. cbn. lia. Qed.

Lemma wopt_pending_or_new : forall ss : session, di_weight (pending_or_new ss) = wopt (s_pending ss).
Proof. intros ss. unfold pending_or_new. destruct (s_pending ss); reflexivity. Qed.

(* ------------------------------------------------------------------ NodeChangedAux, NodeChanged, notification *)

Lemma get_session_some_ids : forall sv sv' s ss, ids sv' = ids sv -> get_session sv s = Some ss -> exists ss', get_session sv' s = Some ss'.
Proof. intros sv sv' s ss Hi Hs. apply get_session_ids. rewrite Hi. apply get_session_ids. eexists. exact Hs. Qed.

Lemma tw_node_changed_aux : forall sv s p d removed, NoDup (ids sv) -> tw (node_changed_aux sv s p d removed) <= tw sv + 1.
Proof.
  intros sv s p d removed Hnd. rewrite node_changed_aux_flush. destruct (get_session sv s) as [ss|] eqn:Hs; [|lia].
  apply (Nat.le_trans _ (tw (nca_prep sv s ss p d removed))).
  { destruct (nca_flush_cases (nca_prep sv s ss p d removed) s) as [-> | ->]; [|rewrite tw_push_all]; lia. }
  unfold nca_prep. cbv zeta. pose proof (wopt_pending_or_new ss) as Hw.
  destruct removed; [destruct (di_has_set (pending_or_new ss) p)|]; change (tw (set_dirty ?x true)) with (tw x).
  - set (sv0 := set_dirty (upd_session sv s (fun x => set_pending x (Some (pending_or_new ss)))) true).
    assert (H0 : tw sv0 <= tw sv + 0) by (apply (tw_set_pending sv s ss); cbn [wopt]; [exact Hnd|exact Hs|lia]).
    assert (Hi : ids (push_all sv0) = ids sv) by (rewrite ids_push_all; apply ids_upd_session; reflexivity).
    destruct (get_session_some_ids sv (push_all sv0) s ss Hi Hs) as [ss' Hs'].
    pose proof (tw_set_pending (push_all sv0) s ss' (Some (di_add_removed empty_di p)) 1 ltac:(rewrite Hi; exact Hnd) Hs'
                  ltac:(cbn; lia)) as H2.
    rewrite tw_push_all in H2. lia.
  - apply (tw_set_pending sv s ss); [exact Hnd|exact Hs|]. cbn [wopt]. rewrite di_weight_add_removed. lia.
  - apply (tw_set_pending sv s ss); [exact Hnd|exact Hs|]. cbn [wopt]. rewrite di_weight_add_set. lia.
Qed.

Lemma tw_node_changed : forall sv s p d old removed, NoDup (ids sv) -> tw (node_changed sv s p d old removed) <= tw sv + 1.
Proof.
  intros sv s p d old removed Hnd. destruct (node_changed_cases sv s p d old removed) as [->|[r ->]];
    [lia|apply tw_node_changed_aux; exact Hnd].
Qed.

Lemma fold_tw : forall (B : Type) (f : server -> B -> server) (k : nat) (l : list B) (sv : server),
  (forall acc x, NoDup (ids acc) -> ids (f acc x) = ids acc /\ tw (f acc x) <= tw acc + k) ->
  NoDup (ids sv) -> tw (fold_left f l sv) <= tw sv + k * length l.
Proof.
  intros B f k l. induction l as [|x l IH]; intros sv Hf Hnd; cbn [fold_left length]; [lia|].
  destruct (Hf sv x Hnd) as [Hi Ht]. specialize (IH (f sv x) Hf ltac:(rewrite Hi; exact Hnd)). lia.
Qed.

Lemma tw_notify_changed : forall sv by_ p d old removed, NoDup (ids sv) ->
  tw (notify_changed sv by_ p d old removed) <=
  tw sv + match find_node (sv_tree sv) p with Some n => length (n_subs n) | None => 0 end.
Proof.
  intros sv by_ p d old removed Hnd. unfold notify_changed.
  destruct (find_node (sv_tree sv) p) as [n|]; [|lia].
  pose proof (fold_tw _ (fun sv' kc => if N.eqb (fst kc) by_ then sv' else node_changed sv' (fst kc) p d old removed) 1 (n_subs n) sv) as H.
  rewrite Nat.mul_1_l in H. apply H; [|exact Hnd].
  intros acc x Ha. destruct (N.eqb (fst x) by_); [split; [reflexivity|lia]|].
  split; [apply ids_node_changed|apply tw_node_changed; exact Ha].
Qed.

Lemma nw_le_SZ : forall t n, In n t -> nw n <= SZ t.
Proof. intros t n H. exact (list_sum_le _ nw t n H). Qed.

Lemma SZ_app : forall a b, SZ (a ++ b) = SZ a + SZ b.
Proof. intros a b. unfold SZ. rewrite map_app, list_sum_app. reflexivity. Qed.

Lemma length_le_SZ : forall t, length t <= SZ t.
Proof. induction t as [|a t IH]; unfold SZ in *; cbn [map length]; [lia|]. rewrite list_sum_cons. unfold nw at 1. lia. Qed.

Lemma tbl_put_len : forall t s c, length (tbl_put t s c) <= length t + 1.
Proof. induction t as [|[k c0] t IH]; intros s c; cbn [tbl_put length]; [lia|]. destruct (N.eqb k s); cbn [length]; [lia|]. specialize (IH s c). lia. Qed.

Lemma tbl_remove_len : forall t s, length (tbl_remove t s) <= length t.
Proof. induction t as [|[k c0] t IH]; intros s; cbn [tbl_remove length]; [lia|]. destruct (N.eqb k s); cbn [length]; [lia|]. specialize (IH s). lia. Qed.

Lemma tbl_adjust_len : forall t s delta, length (tbl_adjust t s delta) <= length t + 1.
Proof.
  intros t s delta. unfold tbl_adjust. destruct (Z.eqb delta 0); [lia|]. cbv zeta.
  outer_if; [apply tbl_put_len|]. pose proof (tbl_remove_len t s). lia.
Qed.

Lemma new_node_table_len : forall sv p, length (new_node_table sv p) <= NS sv.
Proof.
  intros sv p. unfold new_node_table, NS. change (length (sv_sessions sv)) with (length (@nil (sid * N)) + length (sv_sessions sv)).
  generalize (@nil (sid * N)). induction (sv_sessions sv) as [|x l IH]; intros tb; cbn [fold_left length]; [lia|].
  eapply Nat.le_trans; [apply IH|]. pose proof (tbl_adjust_len tb (s_id x) (i32_of_u32 (u32 (match_count (s_subs x) p None 0)))). lia.
Qed.

Lemma map_node_absent : forall (f : node -> node) t p, ~ In p (map n_path t) ->
  map (fun n => if path_eqb (n_path n) p then f n else n) t = t.
Proof.
  intros f t p. induction t as [|b t IH]; intros Hn; cbn [map]; [reflexivity|].
  destruct (path_eqb (n_path b) p) eqn:Eb.
  - apply path_eqb_eq in Eb. exfalso. apply Hn. left. exact Eb.
  - rewrite IH; [reflexivity|]. intros Hin. apply Hn. right. exact Hin.
Qed.

Lemma SZ_map_node : forall f t p k, (forall n, n_path (f n) = n_path n) -> (forall n, length (n_subs (f n)) <= length (n_subs n) + k) ->
  NoDup (map n_path t) -> SZ (map_node f t p) <= SZ t + k.
Proof.
  intros f t p k Hp Hk. unfold map_node, SZ. induction t as [|a t IH]; intros Hnd; cbn [map]; [cbn; lia|].
  rewrite !list_sum_cons. inversion Hnd as [|? ? Hn Hd]; subst.
  destruct (path_eqb (n_path a) p) eqn:E.
  - apply path_eqb_eq in E. rewrite map_node_absent by (rewrite <- E; exact Hn). unfold nw. specialize (Hk a). lia.
  - specialize (IH Hd). lia.
Qed.

Lemma find_node_none_paths : forall t p, find_node t p = None -> ~ In p (map n_path t).
Proof.
  intros t p H Hin. apply in_map_iff in Hin. destruct Hin as [n [Hp Hn]]. exact (proj1 (find_node_none t p) H n Hn Hp).
Qed.

Lemma SZ_filter : forall g t, SZ (filter g t) <= SZ t.
Proof.
  intros g t. unfold SZ. induction t as [|a t IH]; cbn [filter map]; [lia|].
  destruct (g a); cbn [map]; rewrite ?list_sum_cons; lia.
Qed.

(* removing a node that is there frees its own weight *)
Lemma SZ_remove_found : forall t q n, find_node t q = Some n -> SZ (remove_node t q) + nw n <= SZ t.
Proof.
  induction t as [|a t IH]; intros q n H; cbn [find_node] in H; [discriminate|].
  unfold remove_node in *. cbn [filter]. destruct (path_eqb (n_path a) q); cbn [negb].
  - inversion H; subst a. pose proof (SZ_filter (fun n0 => negb (path_eqb (n_path n0) q)) t). unfold SZ in *. cbn [map]. rewrite list_sum_cons. lia.
  - specialize (IH q n H). unfold SZ in *. cbn [map]. rewrite !list_sum_cons. lia.
Qed.

(* ------------------------------------------------------------------ SetDataNode *)

(* what one handler call may do: same sessions, distinct paths kept, growth of nodes / node weight / items bounded *)
Definition step_ok (a b g : nat) (sv sv' : server) : Prop :=
  ids sv' = ids sv /\ NoDup (paths sv') /\ length (sv_tree sv') <= length (sv_tree sv) + a /\
  SZ (sv_tree sv') <= SZ (sv_tree sv) + b /\ tw sv' <= tw sv + g.

Lemma step_ok_id : forall a b g sv, good_sv sv -> step_ok a b g sv sv.
Proof. intros a b g sv [_ H]. unfold step_ok. repeat split; try lia; assumption. Qed.

Lemma step_ok_refl : forall sv, good_sv sv -> step_ok 0 0 0 sv sv.
Proof. intros sv. apply step_ok_id. Qed.

Lemma step_ok_weaken : forall a b g a' b' g' sv sv', step_ok a b g sv sv' -> a <= a' -> b <= b' -> g <= g' -> step_ok a' b' g' sv sv'.
Proof. intros a b g a' b' g' sv sv' [H1 [H2 [H3 [H4 H5]]]] Ha Hb Hg. unfold step_ok. repeat split; try assumption; lia. Qed.

Lemma step_ok_trans : forall a1 b1 g1 a2 b2 g2 sv sv1 sv2,
  step_ok a1 b1 g1 sv sv1 -> step_ok a2 b2 g2 sv1 sv2 -> step_ok (a1 + a2) (b1 + b2) (g1 + g2) sv sv2.
Proof.
  intros a1 b1 g1 a2 b2 g2 sv sv1 sv2 [H1 [H2 [H3 [H4 H5]]]] [K1 [K2 [K3 [K4 K5]]]]. unfold step_ok.
  repeat split; try assumption; try lia. congruence.
Qed.

Lemma good_step : forall a b g sv sv', good_sv sv -> step_ok a b g sv sv' -> good_sv sv'.
Proof. intros a b g sv sv' [H1 _] [K1 [K2 _]]. split; [rewrite K1; exact H1|exact K2]. Qed.

Global Arguments step_ok_weaken {a b g a' b' g' sv sv'}.
Global Arguments step_ok_trans {a1 b1 g1 a2 b2 g2 sv sv1 sv2}.
Global Arguments good_step {a b g sv sv'}.

Lemma step_frame : forall g sv sv', good_sv sv -> frame sv' = frame sv -> tw sv' <= tw sv + g -> step_ok 0 0 g sv sv'.
Proof.
  intros g sv sv' [Hi Hp] Hfr Ht. inversion Hfr as [[H1 H2]]. unfold step_ok, paths. rewrite H2.
  repeat split; try lia; assumption.
Qed.

Lemma step_notify : forall sv by_ p d old removed n, good_sv sv -> find_node (sv_tree sv) p = Some n ->
  step_ok 0 0 (length (n_subs n)) sv (notify_changed sv by_ p d old removed).
Proof.
  intros sv by_ p d old removed n Hg Hf. apply step_frame; [exact Hg|apply frame_notify_changed|].
  pose proof (tw_notify_changed sv by_ p d old removed (proj1 Hg)) as H. rewrite Hf in H. exact H.
Qed.

(* DataNode::SetData on an existing node: nothing is counted, the node keeps its subscribers *)
Lemma step_set_data : forall sv p d n, good_sv sv -> find_node (sv_tree sv) p = Some n ->
  step_ok 0 0 0 sv (set_tree sv (set_data (sv_tree sv) p d)) /\
  exists n1, find_node (set_data (sv_tree sv) p d) p = Some n1 /\ n_subs n1 = n_subs n.
Proof.
  intros sv p d n [Hi Hp] Hf. split.
  - unfold step_ok, paths, set_data. cbn [set_tree sv_tree]. rewrite map_node_paths by reflexivity.
    unfold map_node. rewrite map_length.
    split; [reflexivity|]. split; [exact Hp|]. split; [lia|]. split; [|change (tw sv <= tw sv + 0); lia].
    unfold SZ. rewrite map_map. rewrite (map_ext _ nw); [lia|]. intros x. destruct (path_eqb (n_path x) p); reflexivity.
  - unfold set_data. rewrite find_node_map_node by reflexivity. rewrite Hf. cbn [option_map]. eexists. split; [reflexivity|].
    destruct (path_eqb (n_path n) p); reflexivity.
Qed.

Lemma step_add_node : forall sv nn k, good_sv sv -> find_node (sv_tree sv) (n_path nn) = None -> length (n_subs nn) <= k ->
  step_ok 1 (1 + k) 0 sv (set_tree sv (add_node (sv_tree sv) nn)) /\
  find_node (add_node (sv_tree sv) nn) (n_path nn) = Some nn.
Proof.
  intros sv nn k [Hi Hp] Hf Hk. split.
  - unfold step_ok, paths, add_node. cbn [set_tree sv_tree]. rewrite map_app, app_length, SZ_app. cbn [map length].
    split; [reflexivity|]. split; [apply NoDup_app_one; [exact Hp|apply find_node_none_paths; exact Hf]|].
    split; [lia|]. split; [|change (tw sv <= tw sv + 0); lia].
    unfold SZ at 2. cbn [map]. rewrite list_sum_cons. cbn [list_sum fold_right]. unfold nw. lia.
  - unfold add_node. induction (sv_tree sv) as [|a t IHt]; cbn [find_node app] in *.
    + rewrite path_eqb_refl. reflexivity.
    + destruct (path_eqb (n_path a) (n_path nn)); [discriminate|]. apply IHt. exact Hf.
Qed.

Lemma set_data_loop_cost : forall cl sv by_ pp d dc dov q, good_sv sv ->
  step_ok (length cl) (length cl * (1 + NS sv)) (SZ (sv_tree sv) + length cl * (2 * NS sv + 1))
          sv (set_data_loop sv by_ pp cl d dc dov q).
Proof.
  induction cl as [|k rest IH]; intros sv by_ pp d dc dov q Hg; cbn [set_data_loop length]; [apply step_ok_id; exact Hg|].
  cbv zeta. destruct (find_node (sv_tree sv) (pp ++ [k])) as [n|] eqn:Hf.
  - destruct rest as [|k2 rest2]; [|apply (step_ok_weaken (IH sv by_ (pp ++ [k]) d dc dov q Hg)); cbn [length]; lia].
    destruct dov; [apply step_ok_id; exact Hg|].
    destruct (step_set_data sv (pp ++ [k]) d n Hg Hf) as [H1 [n1 [Hf1 Hs1]]].
    destruct q; [apply (step_ok_weaken H1); lia|].
    pose proof (step_notify _ by_ (pp ++ [k]) d (Some (n_data n)) false n1 (good_step Hg H1) Hf1) as H2.
    apply (step_ok_weaken (step_ok_trans H1 H2)); try lia.
    pose proof (nw_le_SZ _ _ (proj1 (find_node_some _ _ _ Hf))). unfold nw in *. rewrite Hs1. lia.
  - destruct dc; [apply step_ok_id; exact Hg|]. outer_if; [apply step_ok_id; exact Hg|].
    match goal with |- context [add_node (sv_tree sv) ?nn] => set (newn := nn) end.
    destruct (step_add_node sv newn (NS sv) Hg Hf (new_node_table_len sv _)) as [H1 Hf1].
    set (sv1 := set_tree sv (add_node (sv_tree sv) newn)) in *.
    assert (H2 : forall dd oo, step_ok 1 (1 + NS sv) (NS sv) sv (if q then sv1 else notify_changed sv1 by_ (pp ++ [k]) dd oo false)).
    { intros dd oo. destruct q; [apply (step_ok_weaken H1); lia|].
      pose proof (step_notify sv1 by_ (pp ++ [k]) dd oo false newn (good_step Hg H1) Hf1) as Hn.
      apply (step_ok_weaken (step_ok_trans H1 Hn)); try lia. apply new_node_table_len. }
    destruct rest as [|k2 rest2]; [apply (step_ok_weaken (H2 d None)); cbn [length]; lia|].
    specialize (H2 empty_payload None).
    set (sv2 := if q then sv1 else notify_changed sv1 by_ (pp ++ [k]) empty_payload None false) in *.
    pose proof (IH sv2 by_ (pp ++ [k]) d false dov q (good_step Hg H2)) as H3.
    rewrite (NS_ids sv sv2 (proj1 H2)) in H3.
    apply (step_ok_weaken (step_ok_trans H2 H3)); cbn [length]; try lia.
    destruct H2 as [_ [_ [_ [Hsz _]]]]. nia.
Qed.

(* ------------------------------------------------------------------ removal: items + node weight never grow *)

Definition shrink_ok (sv0 sv : server) : Prop :=
  ids sv = ids sv0 /\ NoDup (paths sv) /\ length (sv_tree sv) <= length (sv_tree sv0) /\
  SZ (sv_tree sv) <= SZ (sv_tree sv0) /\ tw sv + SZ (sv_tree sv) <= tw sv0 + SZ (sv_tree sv0).

Lemma shrink_refl : forall sv, good_sv sv -> shrink_ok sv sv.
Proof. intros sv [_ H]. unfold shrink_ok. repeat split; try lia; try reflexivity; exact H. Qed.

(* a node that goes is notified to its subscribers (one item each) and frees its own weight (1 + subscribers) *)
Lemma shrink_leave : forall (sv0 acc : server) (by_ : sid) (notify : bool) (q : path), NoDup (ids sv0) -> shrink_ok sv0 acc ->
  shrink_ok sv0 (match find_node (sv_tree acc) q with
                 | None => acc
                 | Some n =>
                   let sv1 := if notify then notify_changed acc by_ q (n_data n) (Some (n_data n)) true else acc in
                   set_tree sv1 (remove_node (sv_tree sv1) q)
                 end).
Proof.
  intros sv0 acc by_ notify q Hnd [H1 [H2 [H3 [H4 H5]]]].
  destruct (find_node (sv_tree acc) q) as [n|] eqn:Hf; [|unfold shrink_ok; repeat split; assumption].
  cbv zeta.
  set (sv1 := if notify then notify_changed acc by_ q (n_data n) (Some (n_data n)) true else acc).
  assert (Hfr : frame sv1 = frame acc) by (subst sv1; destruct notify; [apply frame_notify_changed|reflexivity]).
  inversion Hfr as [[Hi Ht]].
  assert (Hw : tw sv1 <= tw acc + length (n_subs n)).
  { subst sv1. destruct notify; [|lia].
    pose proof (tw_notify_changed acc by_ q (n_data n) (Some (n_data n)) true ltac:(rewrite H1; exact Hnd)) as H. rewrite Hf in H. exact H. }
  pose proof (SZ_remove_found (sv_tree acc) q n Hf) as R4. unfold nw in R4.
  pose proof (filter_length node (fun n0 => negb (path_eqb (n_path n0) q)) (sv_tree acc)) as R3.
  unfold shrink_ok, paths. cbn [set_tree sv_tree]. rewrite Ht. fold (remove_node (sv_tree acc) q) in R3.
  split; [change (ids sv1 = ids sv0); congruence|]. split; [apply NoDup_map_filter; exact H2|]. split; [lia|]. split; [lia|].
  change (tw sv1 + SZ (remove_node (sv_tree acc) q) <= tw sv0 + SZ (sv_tree sv0)). lia.
Qed.

Lemma remove_subtree_shrink : forall sv0 sv by_ p notify, NoDup (ids sv0) -> shrink_ok sv0 sv ->
  shrink_ok sv0 (remove_subtree sv by_ p notify).
Proof.
  intros sv0 sv by_ p notify Hnd Hs. unfold remove_subtree.
  generalize (removal_order (S (length (sv_tree sv))) (sv_tree sv) p). intros l. revert sv Hs.
  induction l as [|q l IH]; intros sv Hs; cbn [fold_left]; [exact Hs|].
  apply IH. apply (shrink_leave sv0 sv by_ notify q Hnd Hs).
Qed.

Variable fx : fixes.

Lemma do_remove_data_shrink : forall sv ss keys quiet, good_sv sv -> shrink_ok sv (do_remove_data fx sv ss keys quiet).
Proof.
  intros sv ss keys quiet Hg. unfold do_remove_data. cbv zeta.
  match goal with |- context [fold_left _ ?l sv] => generalize l end. intros l.
  assert (H : forall acc, shrink_ok sv acc ->
    shrink_ok sv (fold_left (fun sv' p => if has_node (sv_tree sv') p then remove_subtree sv' (s_id ss) p (negb quiet) else sv') l acc));
    [|apply H, shrink_refl, Hg].
  induction l as [|q l IH]; intros acc Ha; cbn [fold_left]; [exact Ha|].
  apply IH. outer_if; [apply remove_subtree_shrink; [apply Hg|exact Ha]|exact Ha].
Qed.

Lemma shrink_step : forall sv sv', shrink_ok sv sv' -> step_ok 0 0 (SZ (sv_tree sv)) sv sv'.
Proof. intros sv sv' [H1 [H2 [H3 [H4 H5]]]]. unfold step_ok. repeat split; try assumption; lia. Qed.

(* ------------------------------------------------------------------ subscriptions *)

Lemma tw_upd_same : forall sv s f, (forall x, sw (f x) = sw x) -> tw (upd_session sv s f) = tw sv.
Proof.
  intros sv s f Hf. unfold tw, upd_session. cbn [sv_sessions]. rewrite map_map. f_equal. apply map_ext.
  intros x. destruct (N.eqb (s_id x) s); [apply Hf|reflexivity].
Qed.

Lemma step_upd_same : forall sv s f, good_sv sv -> (forall x, s_id (f x) = s_id x) -> (forall x, sw (f x) = sw x) ->
  step_ok 0 0 0 sv (upd_session sv s f).
Proof.
  intros sv s f Hg H1 H2. apply step_frame; [exact Hg|apply frame_upd_session; exact H1|]. rewrite tw_upd_same by exact H2. lia.
Qed.

Lemma mark_nodes_cost : forall t m s delta, NoDup (map n_path t) ->
  map n_path (mark_nodes fx t m s delta) = map n_path t /\ SZ (mark_nodes fx t m s delta) <= SZ t + length t.
Proof.
  intros t m s delta Hnd. unfold mark_nodes.
  apply (do_traversal_cost tree (continue_cb (fun acc n => adjust_subs acc (n_path n) s delta)) SZ
           (fun acc => map n_path acc = map n_path t)); [|exact Hnd|reflexivity].
  intros acc n HQ. unfold continue_cb. cbn [fst]. unfold adjust_subs. split.
  - rewrite map_node_paths by reflexivity. exact HQ.
  - apply SZ_map_node; [reflexivity| |rewrite HQ; exact Hnd]. intros n0. cbn [n_subs]. apply tbl_adjust_len.
Qed.

Lemma mark_step : forall sv m s delta, good_sv sv ->
  step_ok 0 (length (sv_tree sv)) 0 sv (set_tree sv (mark_nodes fx (sv_tree sv) m s delta)).
Proof.
  intros sv m s delta [Hi Hp]. destruct (mark_nodes_cost (sv_tree sv) m s delta Hp) as [H1 H2].
  unfold step_ok, paths. cbn [set_tree sv_tree]. rewrite H1.
  split; [reflexivity|]. split; [exact Hp|]. split; [rewrite <- (map_length n_path), H1, map_length; lia|]. split; [lia|].
  change (tw sv <= tw sv + 0). lia.
Qed.

Lemma remark_step : forall sv s (f : session -> session) m delta, good_sv sv ->
  (forall x, s_id (f x) = s_id x) -> (forall x, sw (f x) = sw x) ->
  step_ok 0 (length (sv_tree sv)) 0 sv
    (set_tree (upd_session sv s f) (mark_nodes fx (sv_tree (upd_session sv s f)) m s delta)).
Proof.
  intros sv s f m delta Hg H1 H2. pose proof (step_upd_same sv s f Hg H1 H2) as K1.
  exact (step_ok_trans K1 (mark_step _ m s delta (good_step Hg K1))).
Qed.

Lemma tw_cqf_cb : forall s oldf newf sv n, NoDup (ids sv) -> tw (cqf_cb fx s oldf newf sv n) <= tw sv + 1.
Proof.
  intros s oldf newf sv n Hnd. unfold cqf_cb. cbv zeta. outer_if; [lia|].
  destruct (get_session sv s) as [ss|]; [|lia]. outer_if; [lia|apply tw_node_changed_aux; exact Hnd].
Qed.

Lemma subscribe_one_cost : forall sv s sf, good_sv sv ->
  step_ok 0 (length (sv_tree sv)) (length (sv_tree sv)) sv (subscribe_one fx sv s sf).
Proof.
  intros sv s sf Hg. unfold subscribe_one. cbv zeta.
  destruct (get_session sv s) as [ss|]; [|apply step_ok_id; exact Hg].
  destruct (fix_path (fst sf)) as [|c0 fp]; [apply step_ok_id; exact Hg|].
  destruct (m_get (s_subs ss) (c0 :: fp)) as [e|].
  - match goal with |- context [upd_session ?sv1 s _] => set (svt := sv1) end.
    assert (H1 : step_ok 0 0 (length (sv_tree sv)) sv svt).
    { assert (Ht : step_ok 0 0 (length (sv_tree sv)) sv
                    (do_traversal (continue_cb (cqf_cb fx s (e_flt e) (snd sf))) (sv_tree sv) (single (c0 :: fp)) [] false (fx_guard fx) sv)).
      { destruct (do_traversal_cost server (continue_cb (cqf_cb fx s (e_flt e) (snd sf))) tw (fun acc => frame acc = frame sv)
                    ltac:(intros acc n Q1; unfold continue_cb; cbn [fst]; split;
                          [rewrite frame_cqf_cb; exact Q1|apply tw_cqf_cb; rewrite (frame_ids _ _ Q1); apply Hg])
                    (sv_tree sv) (single (c0 :: fp)) [] false (fx_guard fx) sv (proj2 Hg) eq_refl) as [Q1 Q3].
        apply step_frame; assumption. }
      subst svt. destruct (snd sf), (e_flt e); try exact Ht. apply step_ok_id. exact Hg. }
    pose proof (step_upd_same svt s (fun x => set_subs x (m_set_filter (s_subs x) (c0 :: fp) (snd sf)))
                  (good_step Hg H1) ltac:(reflexivity) ltac:(reflexivity)) as H2.
    apply (step_ok_weaken (step_ok_trans H1 H2)); lia.
  - apply (step_ok_weaken (remark_step sv s (fun x => set_subs x (m_put (s_subs x) (c0 :: fp) (snd sf))) _ 1 Hg (fun _ => eq_refl) (fun _ => eq_refl))); lia.
Qed.

Lemma unsubscribe_one_cost : forall sv s sp, good_sv sv ->
  step_ok 0 (length (sv_tree sv)) 0 sv (unsubscribe_one fx sv s sp).
Proof.
  intros sv s sp Hg. unfold unsubscribe_one. cbv zeta.
  destruct (get_session sv s) as [ss|]; [|apply step_ok_id; exact Hg].
  destruct (m_remove (s_subs ss) (fix_path sp)) as [m'|]; [|apply step_ok_id; exact Hg].
  apply (remark_step sv s (fun x => set_subs x m')); [exact Hg| |]; reflexivity.
Qed.

(* ------------------------------------------------------------------ GETDATA *)

Lemma tw_send_le : forall sv s r, NoDup (ids sv) -> tw (upd_session sv s (fun x => send x r)) <= tw sv + di_weight r.
Proof.
  intros sv s r Hnd. destruct (get_session sv s) as [ss|] eqn:Hs.
  - apply (tw_upd_le sv s ss); [exact Hnd|exact Hs|reflexivity|]. unfold sw. cbn [send s_pending s_out]. rewrite outw_snoc. lia.
  - assert (Hno : ~ In s (ids sv)) by (intros Hin; apply get_session_ids in Hin; destruct Hin as [x Hx]; congruence).
    unfold tw, upd_session. cbn [sv_sessions]. rewrite upd_absent by exact Hno. lia.
Qed.

Lemma getdata_cb_cost : forall s acc n, NoDup (ids (snd acc)) ->
  wopt (fst (fst (getdata_cb s acc n))) + tw (snd (fst (getdata_cb s acc n))) <= wopt (fst acc) + tw (snd acc) + 1.
Proof.
  intros s [reply sv0] n Hnd. cbn [fst snd] in *. unfold getdata_cb.
  destruct (get_session sv0 s) as [ss|]; [|cbn [fst snd]; lia].
  destruct (own_node ss (n_path n)); [cbn [fst snd]; lia|].
  set (r := di_add_set match reply with Some r0 => r0 | None => empty_di end (n_path n) (n_data n)).
  assert (Hr : di_weight r = wopt reply + 1) by (subst r; rewrite di_weight_add_set; destruct reply; reflexivity).
  outer_if; cbn [fst snd wopt]; [|lia]. pose proof (tw_send_le sv0 s r Hnd). lia.
Qed.

Lemma do_get_data_cost : forall sv s keys, good_sv sv -> step_ok 0 0 (length (sv_tree sv)) sv (do_get_data fx sv s keys).
Proof.
  intros sv s keys [Hi Hp]. apply step_frame; [split; assumption|apply same_core_frame, do_get_data_core|].
  unfold do_get_data.
  match goal with |- context [do_traversal ?cb ?t ?m ?root ?uf ?gf ?acc] =>
    destruct (do_traversal_cost (option ditems * server) cb (fun a => wopt (fst a) + tw (snd a)) (fun a => same_core sv (snd a))
                ltac:(intros acc0 n Q; split; [apply getdata_cb_core; exact Q|];
                      apply getdata_cb_cost; rewrite (frame_ids _ _ (same_core_frame _ _ Q)); exact Hi)
                t m root uf gf acc Hp (same_core_refl sv)) as [Q Q3];
    destruct (do_traversal cb t m root uf gf acc) as [reply sv1]
  end.
  cbn [fst snd wopt] in *. destruct reply as [r|]; cbn [wopt] in Q3; [|lia].
  pose proof (tw_send_le sv1 s r ltac:(rewrite (frame_ids _ _ (same_core_frame _ _ Q)); exact Hi)). lia.
Qed.

End Cost.
