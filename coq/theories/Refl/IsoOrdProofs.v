(* Refl/IsoOrdProofs.v -- C06 for ordered children (model: Refl/IsoOrd.v): a command of s -- INSERTORDEREDDATA and REORDERDATA
   included, alone or in batches -- leaves every index and name counter outside s's subtree alone (and the rest of the frame
   of Refl/IsoFrame.v holds as before); when s departs no index or counter at or below its directory is left and those of
   the others are kept. *)
From Coq Require Import List NArith ZArith Bool Arith Lia.
From Muscle Require Import Refl.Base Refl.BaseProofs Refl.Tree Refl.TreeProofs Refl.Matcher Refl.MatcherProofs
     Refl.Traverse Refl.TraverseProofs Refl.TraverseTheorems
     Refl.Session Refl.Server Refl.ServerProofs Refl.IsoModel Refl.IsoBase Refl.IsoFrame Refl.IsoDetach Refl.IsoClean Refl.IsoOrd.
Import ListNotations.

Section OrdTables.
Context {M : MatchOps}.

Notation oserver := (@oserver M).

(* ------------------------------------------------------------------ tables *)

Definition out (dir : path) (p : path) : bool := negb (is_prefix dir p).

Definition idx_out (dir : path) (ix : itbl) : itbl := filter (fun e => out dir (fst e)) ix.
Definition ctr_out (dir : path) (ct : ctbl) : ctbl := filter (fun e => out dir (fst e)) ct.

(* every index / counter sits at session level or below *)
Definition deep {A : Type} (tb : list (path * A)) : Prop := forall e, In e tb -> 2 <= length (fst e).

(* the entries speak of nodes and children that exist *)
Definition isat (t : tree) (ix : itbl) : Prop :=
  forall e, In e ix -> has_node t (fst e) = true /\ snd e <> [] /\ forall k, In k (snd e) -> has_node t (fst e ++ [k]) = true.
Definition csat (t : tree) (ct : ctbl) : Prop := forall e, In e ct -> has_node t (fst e) = true.

Definition ok (os : oserver) : Prop :=
  deep (o_idx os) /\ deep (o_ctr os) /\ isat (sv_tree (xs_sv (o_x os))) (o_idx os) /\ csat (sv_tree (xs_sv (o_x os))) (o_ctr os).

Lemma prune_idx_fix : forall t ix, isat t ix -> prune_idx t ix = ix.
Proof.
  intros t ix H. unfold prune_idx.
  rewrite (filter_id _ (fun e => has_node t (fst e)) ix) by (intros e He; apply (H e He)).
  assert (Hm : map (fun e : path * list name => (fst e, filter (fun k => has_node t (fst e ++ [k])) (snd e))) ix = ix).
  { rewrite <- (map_id ix) at 2. apply map_ext_in. intros [p l] He. cbn [fst snd]. f_equal. apply filter_id. intros k Hk.
    exact (proj2 (proj2 (H (p, l) He)) k Hk). }
  rewrite Hm. apply filter_id. intros [p l] He. destruct (H (p, l) He) as [_ [Hn _]]. cbn [snd] in *. destruct l; [congruence|reflexivity].
Qed.

Lemma prune_idx_sat : forall t ix, isat t (prune_idx t ix).
Proof.
  intros t ix e He. unfold prune_idx in He. apply filter_In in He as [He Hne]. apply in_map_iff in He as [[p l] [<- Hin]].
  apply filter_In in Hin as [_ Hp]. cbn [fst snd] in *. split; [exact Hp|]. split.
  - intros E. rewrite E in Hne. discriminate.
  - intros k Hk. apply filter_In in Hk. tauto.
Qed.

Lemma prune_idx_deep : forall t ix, deep ix -> deep (prune_idx t ix).
Proof.
  intros t ix H e He. unfold prune_idx in He. apply filter_In in He as [He _]. apply in_map_iff in He as [[p l] [<- Hin]].
  apply filter_In in Hin as [Hin _]. exact (H (p, l) Hin).
Qed.

Lemma prune_ctr_fix : forall t ct, csat t ct -> prune_ctr t ct = ct.
Proof. intros t ct H. unfold prune_ctr. apply filter_id. exact H. Qed.

Lemma prune_ctr_sat : forall t ct, csat t (prune_ctr t ct).
Proof. intros t ct e He. unfold prune_ctr in He. apply filter_In in He. tauto. Qed.

Lemma prune_ctr_deep : forall t ct, deep ct -> deep (prune_ctr t ct).
Proof. intros t ct H e He. unfold prune_ctr in He. apply filter_In in He as [He _]. now apply H. Qed.

Lemma oprune_ok : forall os, deep (o_idx os) -> deep (o_ctr os) -> ok (oprune os).
Proof.
  intros os H1 H2. unfold ok, oprune. cbn [o_x o_idx o_ctr]. split; [now apply prune_idx_deep|]. split; [now apply prune_ctr_deep|].
  split; [apply prune_idx_sat|apply prune_ctr_sat].
Qed.

(* pruning works entry by entry *)
Lemma idx_out_prune : forall dir t ix, idx_out dir (prune_idx t ix) = prune_idx t (idx_out dir ix).
Proof.
  intros dir t ix. unfold idx_out, prune_idx. rewrite filter_comm. f_equal.
  rewrite (filter_comm _ (fun e => has_node t (fst e)) (fun e => out dir (fst e))).
  generalize (filter (fun e : path * list name => has_node t (fst e)) ix). intros l.
  induction l as [|e l IH]; [reflexivity|]. cbn [map filter fst]. destruct (out dir (fst e)); cbn [map]; now rewrite IH.
Qed.

Lemma ctr_out_prune : forall dir t ct, ctr_out dir (prune_ctr t ct) = prune_ctr t (ctr_out dir ct).
Proof. intros. unfold ctr_out, prune_ctr. apply filter_comm. Qed.

Lemma isat_sub : forall t ix f, isat t ix -> isat t (filter f ix).
Proof. intros t ix f H e He. apply filter_In in He as [He _]. now apply H. Qed.

Lemma csat_sub : forall t ct f, csat t ct -> csat t (filter f ct).
Proof. intros t ct f H e He. apply filter_In in He as [He _]. now apply H. Qed.

Lemma out_without : forall (A : Type) dir (tb : list (path * A)) p, is_prefix dir p = true ->
  filter (fun e => out dir (fst e)) (filter (fun e => negb (path_eqb (fst e) p)) tb) = filter (fun e => out dir (fst e)) tb.
Proof.
  intros A dir tb p Hp. rewrite filter_comm. apply filter_id. intros e He. apply filter_In in He as [_ Ho].
  apply negb_true_iff. destruct (path_eqb (fst e) p) eqn:E; [|reflexivity]. apply path_eqb_eq in E. unfold out in Ho. rewrite E, Hp in Ho. discriminate.
Qed.

Lemma idx_out_set_inside : forall dir ix p l, is_prefix dir p = true -> idx_out dir (idx_set ix p l) = idx_out dir ix.
Proof.
  intros dir ix p l Hp. unfold idx_out, idx_set. rewrite filter_app, (out_without _ dir ix p Hp).
  destruct l; [apply app_nil_r|]. cbn [filter fst]. unfold out. rewrite Hp. apply app_nil_r.
Qed.

Lemma ctr_out_set_inside : forall dir ct p c, is_prefix dir p = true -> ctr_out dir (ctr_set ct p c) = ctr_out dir ct.
Proof.
  intros dir ct p c Hp. unfold ctr_out, ctr_set. rewrite filter_app, (out_without _ dir ct p Hp).
  destruct (N.eqb c 0); [apply app_nil_r|]. cbn [filter fst]. unfold out. rewrite Hp. apply app_nil_r.
Qed.

Lemma deep_idx_set : forall ix p l, deep ix -> 2 <= length p -> deep (idx_set ix p l).
Proof.
  intros ix p l H Hp e He. unfold idx_set in He. apply in_app_iff in He as [He|He].
  - apply filter_In in He as [He _]. now apply H.
  - destruct l; [destruct He|]. destruct He as [<-|[]]. exact Hp.
Qed.

Lemma deep_ctr_set : forall ct p c, deep ct -> 2 <= length p -> deep (ctr_set ct p c).
Proof.
  intros ct p c H Hp e He. unfold ctr_set in He. apply in_app_iff in He as [He|He].
  - apply filter_In in He as [He _]. now apply H.
  - destruct (N.eqb c 0); [destruct He|]. destruct He as [<-|[]]. exact Hp.
Qed.

(* ------------------------------------------------------------------ trees that agree outside a directory *)

Definition same_outside (dir : path) (t t' : tree) : Prop := forall q, 2 <= length q -> out dir q = true -> has_node t' q = has_node t q.

Lemma has_node_iff_eq : forall t t' q, (has_node t q = true <-> has_node t' q = true) -> has_node t' q = has_node t q.
Proof.
  intros t t' q H. destruct (has_node t q) eqn:A, (has_node t' q) eqn:B; try reflexivity.
  - exact (proj1 H eq_refl).
  - symmetry. exact (proj2 H eq_refl).
Qed.

Lemma fv_same_outside : forall s dir t t', foreign_view s dir t' = foreign_view s dir t -> same_outside dir t t'.
Proof.
  intros s dir t t' H q _ Hq. apply has_node_iff_eq.
  assert (G : forall a b, foreign_view s dir a = foreign_view s dir b -> has_node a q = true -> has_node b q = true).
  { intros a b Hab Ha. apply has_node_spec in Ha as [n [Hn Hp]].
    assert (Hin : In (strip s n) (foreign_view s dir a)).
    { unfold foreign_view. apply in_map, filter_In. split; [exact Hn|]. unfold outside. rewrite Hp. exact Hq. }
    rewrite Hab in Hin. unfold foreign_view in Hin. apply in_map_iff in Hin as [n' [Hs Hn']]. apply filter_In in Hn' as [Hn' _].
    apply has_node_spec. exists n'. split; [exact Hn'|]. rewrite <- Hp. exact (f_equal n_path Hs). }
  split; [apply G; now symmetry|now apply G].
Qed.

(* below session level, the children of a node outside a session directory are outside it too *)
Lemma out_child : forall dir p k, length dir = 2 -> 2 <= length p -> out dir p = true -> out dir (p ++ [k]) = true.
Proof.
  intros dir p k Hd Hp Ho. unfold out in *. apply negb_true_iff. apply negb_true_iff in Ho.
  destruct (is_prefix dir (p ++ [k])) eqn:E; [|reflexivity]. apply is_prefix_spec in E as [r Hr].
  assert (Hf : firstn 2 (p ++ [k]) = firstn 2 p) by (rewrite firstn_app; replace (2 - length p) with 0 by lia; cbn; apply app_nil_r).
  assert (Hg : firstn 2 (dir ++ r) = dir) by (rewrite firstn_app, <- Hd, Nat.sub_diag, firstn_all; cbn; apply app_nil_r).
  rewrite Hr, Hg in Hf. assert (Hpre : is_prefix dir p = true).
  { apply is_prefix_spec. exists (skipn 2 p). rewrite Hf. symmetry. apply firstn_skipn. }
  congruence.
Qed.

Lemma isat_transfer : forall dir t t' ix, length dir = 2 -> same_outside dir t t' -> deep ix ->
  (forall e, In e ix -> out dir (fst e) = true) -> isat t ix -> isat t' ix.
Proof.
  intros dir t t' ix Hd Hs Hdeep Hout H e He. destruct (H e He) as [H1 [H2 H3]]. split; [|split; [exact H2|]].
  - rewrite (Hs _ (Hdeep e He) (Hout e He)). exact H1.
  - intros k Hk. rewrite (Hs (fst e ++ [k])); [now apply H3|rewrite app_length; cbn; pose proof (Hdeep e He); lia|]. apply out_child; auto.
Qed.

Lemma csat_transfer : forall dir t t' (ct : ctbl), same_outside dir t t' -> deep ct ->
  (forall e, In e ct -> out dir (fst e) = true) -> csat t ct -> csat t' ct.
Proof. intros dir t t' ct Hs Hd Hout H e He. rewrite (Hs _ (Hd e He) (Hout e He)). now apply H. Qed.

(* the heart of the frame for tables: the new tables agree with the old ones outside, the trees agree outside *)
Lemma prune_frame : forall dir (os : oserver) x' ix' ct', length dir = 2 -> ok os ->
  same_outside dir (sv_tree (xs_sv (o_x os))) (sv_tree (xs_sv x')) ->
  idx_out dir ix' = idx_out dir (o_idx os) -> ctr_out dir ct' = ctr_out dir (o_ctr os) ->
  deep ix' -> deep ct' ->
  let os' := oprune (mkO x' ix' ct') in
  idx_out dir (o_idx os') = idx_out dir (o_idx os) /\ ctr_out dir (o_ctr os') = ctr_out dir (o_ctr os) /\ ok os'.
Proof.
  intros dir os x' ix' ct' Hd [D1 [D2 [S1 S2]]] Hs Hi Hc D1' D2' os'. unfold os', oprune. cbn [o_x o_idx o_ctr]. split; [|split].
  - rewrite idx_out_prune, Hi. apply prune_idx_fix.
    apply (isat_transfer dir (sv_tree (xs_sv (o_x os)))); auto.
    + intros e He. apply filter_In in He as [He _]. now apply D1.
    + intros e He. apply filter_In in He. tauto.
    + now apply isat_sub.
  - rewrite ctr_out_prune, Hc. apply prune_ctr_fix.
    apply (csat_transfer dir (sv_tree (xs_sv (o_x os)))); auto.
    + intros e He. apply filter_In in He as [He _]. now apply D2.
    + intros e He. apply filter_In in He. tauto.
    + now apply csat_sub.
  - now apply (oprune_ok (mkO x' ix' ct')).
Qed.

(* ------------------------------------------------------------------ the traversals stay below the session directory *)

Lemma visits_below : forall t m root uf gf n, In n (visits t m root uf gf) -> exists r, r <> [] /\ n_path n = root ++ r.
Proof. intros t m root uf gf n H. rewrite visits_V in H. apply V_below in H. tauto. Qed.

Lemma fold_inside : forall (A E V : Type) (view : list (path * E) -> V) (f : list (path * E) -> A -> list (path * E)) (l : list A) tb,
  (forall tb a, In a l -> view (f tb a) = view tb /\ (deep tb -> deep (f tb a))) ->
  view (fold_left f l tb) = view tb /\ (deep tb -> deep (fold_left f l tb)).
Proof.
  intros A E V view f l tb H. revert tb.
  apply (fold_chain _ _ (fun a b => view b = view a /\ (deep a -> deep b))); [now split| |exact H].
  intros x y z [H1 H2] [H3 H4]. split; [congruence|auto].
Qed.

End OrdTables.

(* ------------------------------------------------------------------ FRAME *)

Section OrdProofs.
Context {M : MatchOps}.
Variable fx : fixes.
Variable iname : N -> name.

Notation oserver := (@oserver M).

Definition oframe (s : sid) (dir : path) (os os' : oserver) : Prop :=
  xframe s dir (o_x os) (o_x os') /\
  idx_out dir (o_idx os') = idx_out dir (o_idx os) /\ ctr_out dir (o_ctr os') = ctr_out dir (o_ctr os) /\ ok os'.

Lemma frame_same_outside : forall s dir sv sv', frame s dir sv sv' -> same_outside dir (sv_tree sv) (sv_tree sv').
Proof. intros s dir sv sv' [H _]. now apply (fv_same_outside s). Qed.

Lemma ocmd_ind' : forall (P : ocmd -> Prop),
  (forall c, P (OX c)) -> (forall k i, P (OInsert k i)) -> (forall f, P (OReorder f)) -> (forall fl i, P (OSetIdx fl i)) ->
  (forall l, Forall P l -> P (OBatch l)) -> forall c, P c.
Proof.
  intros P H1 H2 H3 H5 H4.
  refine (fix IH (c : ocmd) : P c :=
            match c with
            | OX c => H1 c | OInsert k i => H2 k i | OReorder f => H3 f | OSetIdx fl i => H5 fl i
            | OBatch l => H4 l ((fix go (l : list ocmd) : Forall P l :=
                                   match l with [] => Forall_nil P | c' :: r => Forall_cons c' (IH c') (go r) end) l)
            end).
Qed.

Lemma session_dir_len : forall ss : session, length (session_dir ss) = 2.
Proof. reflexivity. Qed.

Lemma visit_paths_below : forall t ss key p, In p (visit_paths fx t ss key) -> exists r, r <> [] /\ p = session_dir ss ++ r.
Proof.
  intros t ss key p H. unfold visit_paths in H. apply in_map_iff in H as [n [<- Hn]]. now apply visits_below in Hn.
Qed.

Lemma oframe_trans : forall s dir a b c, oframe s dir a b -> oframe s dir b c -> oframe s dir a c.
Proof.
  intros s dir a b c [X1 [I1 [C1 _]]] [X2 [I2 [C2 K2]]]. split; [eapply xframe_trans; eassumption|]. split; [congruence|]. split; [congruence|exact K2].
Qed.

Lemma oframe_refl : forall s dir os, ok os -> oframe s dir os os.
Proof. intros s dir os H. split; [apply xframe_refl|]. split; [reflexivity|]. split; [reflexivity|exact H]. Qed.

Lemma oframe_lives : forall s dir os os', oframe s dir os os' -> lives s dir (xs_sv (o_x os)) -> lives s dir (xs_sv (o_x os')).
Proof. intros s dir os os' [[F _] _]. exact (frame_lives _ _ _ _ _ F). Qed.

Lemma oframe_steps : forall (C : Type) (f : oserver -> C -> oserver) s dir l,
  (forall os c, In c l -> lives s dir (xs_sv (o_x os)) -> ok os -> oframe s dir os (f os c)) ->
  forall os, lives s dir (xs_sv (o_x os)) -> ok os -> oframe s dir os (fold_left f l os).
Proof.
  intros C f s dir l. induction l as [|c l IH]; intros H os Hl Hok; cbn [fold_left]; [now apply oframe_refl|].
  assert (F : oframe s dir os (f os c)) by (apply H; [now left|exact Hl|exact Hok]).
  apply (oframe_trans _ _ _ _ _ F). apply IH; [intros; apply H; [now right|assumption|assumption]|exact (oframe_lives _ _ _ _ F Hl)|apply F].
Qed.

Lemma oframe_prune : forall s ss os x' ix' ct', ok os -> xframe s (session_dir ss) (o_x os) x' ->
  idx_out (session_dir ss) ix' = idx_out (session_dir ss) (o_idx os) -> ctr_out (session_dir ss) ct' = ctr_out (session_dir ss) (o_ctr os) ->
  (deep (o_idx os) -> deep ix') -> (deep (o_ctr os) -> deep ct') ->
  oframe s (session_dir ss) os (oprune (mkO x' ix' ct')).
Proof.
  intros s ss os x' ix' ct' Hok Fx Hi Hc D1 D2. split; [exact Fx|].
  apply (prune_frame (session_dir ss) os x' ix' ct' eq_refl Hok); [|exact Hi|exact Hc|apply D1, Hok|apply D2, Hok].
  apply (frame_same_outside s). exact (proj1 Fx).
Qed.

Lemma do_insert_frame : forall nest os ss key items, ok os -> lives (s_id ss) (session_dir ss) (xs_sv (o_x os)) ->
  oframe (s_id ss) (session_dir ss) os (do_insert fx iname nest os ss key items).
Proof.
  intros nest os ss key items Hok Hl. unfold do_insert. cbv zeta.
  assert (Hpl : forall (A : Type) (g : path -> A) pl, In pl (map (fun p => (p, g p)) (visit_paths fx (sv_tree (xs_sv (o_x os))) ss key)) ->
                is_prefix (session_dir ss) (fst pl) = true /\ 2 <= length (fst pl)).
  { intros A g pl Hpl. apply in_map_iff in Hpl as [p [<- Hp]]. cbn [fst]. apply visit_paths_below in Hp as [r [Hr ->]].
    split; [apply is_prefix_app|]. rewrite app_length, session_dir_len. lia. }
  match goal with |- oframe _ _ _ (oprune (mkO _ ?I ?C)) =>
    assert (TI : idx_out (session_dir ss) I = idx_out (session_dir ss) (o_idx os) /\ (deep (o_idx os) -> deep I));
    [|assert (TC : ctr_out (session_dir ss) C = ctr_out (session_dir ss) (o_ctr os) /\ (deep (o_ctr os) -> deep C))] end.
  - apply (fold_inside _ _ _ (idx_out (session_dir ss))). intros ix a Ha. destruct (Hpl _ _ a Ha) as [P1 P2].
    split; [now apply idx_out_set_inside|intros; now apply deep_idx_set].
  - apply (fold_inside _ _ _ (ctr_out (session_dir ss))). intros ct a Ha. destruct (Hpl _ _ a Ha) as [P1 P2].
    split; [now apply ctr_out_set_inside|intros; now apply deep_ctr_set].
  - apply oframe_prune; [exact Hok|now apply xhandle_xframe_at|apply TI|apply TC|apply TI|apply TC].
Qed.

Lemma reorder_at_inside : forall t b ss key p ix, In p (visit_paths fx t ss key) ->
  idx_out (session_dir ss) (reorder_at t b ix p) = idx_out (session_dir ss) ix /\ (deep ix -> deep (reorder_at t b ix p)).
Proof.
  intros t b ss key p ix Hp. apply visit_paths_below in Hp as [r [Hr ->]]. unfold reorder_at. cbv zeta.
  rewrite removelast_app by exact Hr. split; [apply idx_out_set_inside, is_prefix_app|].
  intros; apply deep_idx_set; [assumption|]. rewrite app_length, session_dir_len. lia.
Qed.

Lemma do_reorder_frame : forall s os ss fields, ok os -> oframe s (session_dir ss) os (do_reorder fx os ss fields).
Proof.
  intros s os ss fields Hok. unfold do_reorder. cbv zeta.
  match goal with |- oframe _ _ _ (oprune (mkO _ ?I _)) =>
    assert (T : idx_out (session_dir ss) I = idx_out (session_dir ss) (o_idx os) /\ (deep (o_idx os) -> deep I)) end.
  { apply (fold_inside _ _ _ (idx_out (session_dir ss))). intros ix f _.
    apply (fold_inside _ _ _ (idx_out (session_dir ss))). intros ix0 p Hp. now apply (reorder_at_inside _ (snd f) ss (fst f, None)). }
  apply oframe_prune; [exact Hok|apply xframe_refl|apply T|reflexivity|apply T|auto].
Qed.

(* SETDATA with ADDTOINDEX, item by item: the dispatcher part stays in the frame, the index changes inside only, the
   counters not at all *)
Definition item_frame (s : sid) (dir : path) (os os' : oserver) : Prop :=
  xframe s dir (o_x os) (o_x os') /\ idx_out dir (o_idx os') = idx_out dir (o_idx os) /\ o_ctr os' = o_ctr os /\
  (deep (o_idx os) -> deep (o_idx os')).

Lemma set_idx_item_frame : forall nest ss flags os it, lives (s_id ss) (session_dir ss) (xs_sv (o_x os)) ->
  item_frame (s_id ss) (session_dir ss) os (set_idx_item fx nest ss flags os it).
Proof.
  intros nest ss flags os it Hl. unfold set_idx_item. cbv zeta. split; [now apply xhandle_xframe_at|]. cbn [o_idx o_ctr].
  split; [|split; [reflexivity|]]; (destruct (_ && has_node _ _); [|auto]).
  - apply idx_out_set_inside, is_prefix_app.
  - intros D. apply deep_idx_set; [exact D|]. rewrite app_length, session_dir_len. lia.
Qed.

Lemma do_set_idx_frame : forall nest os ss flags items, ok os -> lives (s_id ss) (session_dir ss) (xs_sv (o_x os)) ->
  oframe (s_id ss) (session_dir ss) os (do_set_idx fx nest os ss flags items).
Proof.
  intros nest os ss flags items Hok Hl. unfold do_set_idx.
  assert (G : item_frame (s_id ss) (session_dir ss) os (fold_left (set_idx_item fx nest ss flags) items os)).
  { revert Hl. apply (fold_steps _ _ (item_frame (s_id ss) (session_dir ss)) (fun o => lives (s_id ss) (session_dir ss) (xs_sv (o_x o)))).
    - intros o. split; [apply xframe_refl|]. repeat split; auto.
    - intros a b c [X1 [I1 [C1 D1]]] [X2 [I2 [C2 D2]]]. split; [eapply xframe_trans; eassumption|]. repeat split; try congruence; auto.
    - intros a b [[F _] _]. exact (frame_lives _ _ _ _ _ F).
    - intros o it _. apply set_idx_item_frame. }
  destruct G as [Fx [HI [HC HD]]]. destruct (fold_left _ items os) as [x1 ix1 ct1]. cbn [o_x o_idx o_ctr] in *.
  apply oframe_prune; try assumption; rewrite HC; auto.
Qed.

Lemma opush_frame : forall s dir os, ok os -> oframe s dir os (opush os).
Proof.
  intros s dir os Hok. split; [apply xframe_push|]. split; [reflexivity|]. split; [reflexivity|].
  unfold ok, opush. cbn [o_idx o_ctr o_x xs_sv with_sv]. now rewrite (proj1 (push_all_same (xs_sv (o_x os)))).
Qed.

Lemma ohandle_none : forall c nest os s, get_session (xs_sv (o_x os)) s = None -> ohandle fx iname nest os s c = os.
Proof. intros c nest os s H. destruct c; cbn [ohandle]; now rewrite H. Qed.

(* FRAME for ordered children: whatever command s sends -- INSERTORDEREDDATA, REORDERDATA, anything of Refl/IsoModel.v, in
   batches or alone -- the frame of Refl/IsoFrame.v holds for the dispatcher part, and every ordered index and every name
   counter of a node outside s's subtree is what it was *)
Theorem ohandle_frame_at : forall c nest os s dir, lives s dir (xs_sv (o_x os)) -> ok os ->
  oframe s dir os (ohandle fx iname nest os s c).
Proof.
  induction c as [xc|k i|f|fl i|l IHl] using ocmd_ind'; intros nest os s dir Hl Hok; cbn [ohandle];
    (destruct (get_session (xs_sv (o_x os)) s) as [ss|] eqn:Hs; [|now apply oframe_refl]);
    pose proof (get_session_id _ _ _ Hs) as Hid; pose proof (Hl ss Hs) as Hd; subst s dir.
  - apply oframe_prune; auto. now apply xhandle_xframe_at.
  - now apply do_insert_frame.
  - now apply do_reorder_frame.
  - now apply do_set_idx_frame.
  - destruct (Nat.ltb _ _); [|now apply oframe_refl]. rewrite batch_loop. apply oframe_steps; [|exact Hl|exact Hok].
    intros os' c Hc Hl' Hok'. pose proof (proj1 (Forall_forall _ _) IHl c Hc (S nest) os' _ _ Hl' Hok') as F.
    apply (oframe_trans _ _ _ _ _ F). apply opush_frame, F.
Qed.

Theorem ohandle_frame : forall c nest os s ss, get_session (xs_sv (o_x os)) s = Some ss -> ok os ->
  oframe s (session_dir ss) os (ohandle fx iname nest os s c).
Proof. intros c nest os s ss Hs. apply ohandle_frame_at. now apply lives_here. Qed.

Corollary ohandle_frame_ex : forall c nest os k, ok os -> exists dir, length dir = 2 /\ oframe k dir os (ohandle fx iname nest os k c).
Proof.
  intros c nest os k Hok. destruct (get_session (xs_sv (o_x os)) k) as [ss|] eqn:Hs.
  - exists (session_dir ss). split; [reflexivity|now apply ohandle_frame].
  - exists [0%N; 0%N]. split; [reflexivity|]. rewrite ohandle_none by exact Hs. now apply oframe_refl.
Qed.

(* ------------------------------------------------------------------ reachable states *)

Lemma ok_empty : ok (empty_oserver).
Proof. split; [intros x []|]. split; [intros x []|]. split; intros x []. Qed.

Lemma ohandle_ok : forall c nest os s, ok os -> ok (ohandle fx iname nest os s c).
Proof.
  intros c nest os s Hok. destruct (ohandle_frame_ex c nest os s Hok) as [dir [_ F]]. apply F.
Qed.

Lemma ostep_ok : forall os ev, ok os -> ok (ostep fx iname os ev).
Proof.
  intros os [s host nm bits|s|s c] Hok; cbn [ostep].
  - apply (oprune_ok (mkO _ _ _)); apply Hok.
  - apply (oprune_ok (mkO _ _ _)); apply Hok.
  - destruct (get_session (xs_sv (o_x os)) s); [|exact Hok]. cbv zeta.
    pose proof (ohandle_ok c 0 os s Hok) as H1. apply (oprune_ok (mkO _ _ _)); cbn [o_idx o_ctr opush]; apply H1.
Qed.

Theorem orun_ok : forall evs os, ok os -> ok (orun fx iname evs os).
Proof. induction evs as [|ev evs IH]; intros os H; cbn; [exact H|]. apply IH. now apply ostep_ok. Qed.

(* FRAME, one whole turn (command, update push, removal of kicked sessions, pruning) of an unprivileged session *)
Lemma oprune_id : forall os, ok os -> oprune os = os.
Proof.
  intros [x ix ct] [_ [_ [S1 S2]]]. unfold oprune. cbn [o_x o_idx o_ctr] in *. f_equal; [now apply prune_idx_fix|now apply prune_ctr_fix].
Qed.

Theorem ostep_frame : forall os s c ss, get_session (xs_sv (o_x os)) s = Some ss -> ok os ->
  unprivileged (o_x os) s -> xs_ducks (o_x os) = [] ->
  oframe s (session_dir ss) os (ostep fx iname os (OCmd s c)).
Proof.
  intros os s c ss Hs Hok Hu Hd. cbn [ostep]. rewrite Hs. cbv zeta.
  pose proof (ohandle_frame c 0 os s ss Hs Hok) as F1.
  pose proof (opush_frame s (session_dir ss) _ (proj2 (proj2 (proj2 F1)))) as F2.
  pose proof (oframe_trans _ _ _ _ _ F1 F2) as F12.
  destruct (proj2 (proj2 (proj1 F12)) Hu) as [_ Hd1].
  rewrite clear_ducks_nil by congruence.
  set (os1 := opush (ohandle fx iname 0 os s c)) in *.
  replace (mkO (o_x os1) (o_idx os1) (o_ctr os1)) with os1 by (destruct os1; reflexivity).
  rewrite oprune_id by exact (proj2 (proj2 (proj2 F12))). exact F12.
Qed.

End OrdProofs.

(* ------------------------------------------------------------------ DETACH *)

Section OrdDetach.
Context {M : MatchOps} {L : MatchLaws M}.
Variable fx : fixes.
Hypothesis guard_on : fx_guard fx = true.
Variable iname : N -> name.

(* when s's connection ends: the dispatcher part is left clean (Refl/IsoClean.v), no ordered index and no name counter at or
   below s's directory is left, and those of all nodes outside it are what they were *)
Theorem odetach_clean : forall B (os : @oserver M) s ss, small B -> inv B (xs_sv (o_x os)) -> xs_ducks (o_x os) = [] ->
  get_session (xs_sv (o_x os)) s = Some ss -> ok os ->
  let os' := ostep fx iname os (ODetach s) in
  left_clean (o_x os) s ss (o_x os') /\
  (forall e, In e (o_idx os') -> is_prefix (session_dir ss) (fst e) = false) /\
  (forall e, In e (o_ctr os') -> is_prefix (session_dir ss) (fst e) = false) /\
  idx_out (session_dir ss) (o_idx os') = idx_out (session_dir ss) (o_idx os) /\
  ctr_out (session_dir ss) (o_ctr os') = ctr_out (session_dir ss) (o_ctr os) /\ ok os'.
Proof.
  intros B os s ss HB I Hd Hs Hok os'.
  pose proof (xdetach_clean fx guard_on B (o_x os) s ss HB I Hd Hs) as C.
  assert (Hso : same_outside (session_dir ss) (sv_tree (xs_sv (o_x os))) (sv_tree (xs_sv (xdetach fx (o_x os) s)))).
  { intros q Hq Ho. apply has_node_iff_eq. split; intros H; apply has_node_spec in H as [n [Hn Hp]].
    - rewrite <- Hp. apply (lc_kept _ _ _ _ C n Hn).
      + unfold out in Ho. apply negb_true_iff in Ho. now rewrite Hp.
      + rewrite Hp. intros E. rewrite E in Hq. cbn in Hq. lia.
    - destruct (lc_rest _ _ _ _ C n Hn) as [n0 [Hn0 [Hp0 _]]]. apply has_node_spec. exists n0. split; [exact Hn0|congruence]. }
  destruct (prune_frame (session_dir ss) os (xdetach fx (o_x os) s) (o_idx os) (o_ctr os) eq_refl Hok Hso eq_refl eq_refl
                        (proj1 Hok) (proj1 (proj2 Hok))) as [A1 [A2 A3]].
  fold os' in A1, A2, A3. split; [exact C|]. split; [|split; [|split; [exact A1|split; [exact A2|exact A3]]]].
  - intros e He. destruct (proj1 (proj2 (proj2 A3)) e He) as [Hn _]. apply has_node_spec in Hn as [n [Hn Hp]].
    rewrite <- Hp. exact (lc_subtree _ _ _ _ C n Hn).
  - intros e He. pose proof (proj2 (proj2 (proj2 A3)) e He) as Hn. apply has_node_spec in Hn as [n [Hn Hp]].
    rewrite <- Hp. exact (lc_subtree _ _ _ _ C n Hn).
Qed.

End OrdDetach.
