(* Refl/IsoHonest.v -- C06: forged session fields.  Whatever PR_NAME_SESSION string a client puts into a client-to-client
   Message, every copy the server passes on carries the sender's own session name (or no such field, if there was none),
   names the true sender, and goes to somebody else; bounces and replies go to the sender alone. *)
From Coq Require Import List NArith ZArith Bool Arith Lia.
From Muscle Require Import Refl.Base Refl.Tree Refl.Matcher Refl.Traverse Refl.Session Refl.Server
     Refl.IsoModel Refl.IsoTrav.
Import ListNotations.

Section Honest.
Context {M : MatchOps}.
Variable fx : fixes.

(* what an entry that session ss's Message (what-code what, session field sess) adds to the log may look like *)
Definition honest (ss : session) (what : N) (sess : option name) (e : sid * reply) : Prop :=
  match snd e with
  | RForward from w se =>
      from = s_id ss /\ w = what /\ se = match sess with Some _ => Some (s_name ss) | None => None end /\ fst e <> s_id ss
  | RBounce _ w => fst e = s_id ss /\ w = what
  | RReply _ => fst e = s_id ss
  end.

Lemma pass_cb_honest : forall sv ss what sess (old : list (sid * reply)) acc n,
  (exists added, snd acc = old ++ added /\ Forall (honest ss what sess) added) ->
  exists added, snd (fst (pass_cb sv (s_id ss) (RForward (s_id ss) what (match sess with Some _ => Some (s_name ss) | None => None end)) acc n))
                = old ++ added /\ Forall (honest ss what sess) added.
Proof.
  intros sv ss what sess old [sent log] n [added [Ha Hf]]. cbn [snd] in Ha. unfold pass_cb.
  destruct (owner_of sv (n_path n)) as [t|]; [|now exists added].
  destruct (N.eqb (s_id t) (s_id ss)) eqn:E; [now exists added|].
  destruct (sid_mem (s_id t) sent); [now exists added|].
  cbn [fst snd]. exists (added ++ [(s_id t, RForward (s_id ss) what (match sess with Some _ => Some (s_name ss) | None => None end))]).
  split; [rewrite Ha; now rewrite app_assoc|]. apply Forall_app. split; [exact Hf|]. constructor; [|constructor].
  unfold honest. cbn [snd fst]. repeat split. now apply N.eqb_neq.
Qed.

Theorem dispatch_honest : forall xs ss what keys sess,
  exists added, xs_log (dispatch fx xs ss what keys sess) = xs_log xs ++ added /\ Forall (honest ss what sess) added.
Proof.
  intros xs ss what keys sess. unfold dispatch, bounce, log_to, with_ducks.
  assert (Hnil : exists added, xs_log xs = xs_log xs ++ added /\ Forall (honest ss what sess) added)
    by (exists []; split; [now rewrite app_nil_r|constructor]).
  assert (Hone : forall r, honest ss what sess (s_id ss, r) ->
                 exists added, xs_log xs ++ [(s_id ss, r)] = xs_log xs ++ added /\ Forall (honest ss what sess) added)
    by (intros r Hr; exists [(s_id ss, r)]; split; [reflexivity|constructor; [exact Hr|constructor]]).
  destruct (in_command_range what).
  - (* every branch of the switch leaves the log alone, or adds one bounce or reply for the sender; a kick marks sessions only *)
    repeat (match goal with |- context [if ?b then _ else _] => destruct b end); cbn [xs_log];
      first [exact Hnil | apply Hone; unfold honest; cbn; auto | destruct keys; exact Hnil].
  - destruct keys as [|k keys']; cbn [xs_log].
    + exists (flat_map (fun t => if N.eqb (s_id t) (s_id ss) then []
                                   else [(s_id t, RForward (s_id ss) what (match sess with Some _ => Some (s_name ss) | None => None end))])
                       (sv_sessions (xs_sv xs))).
      split; [reflexivity|]. apply Forall_forall. intros e He. apply in_flat_map in He as [t [_ He]].
      destruct (N.eqb (s_id t) (s_id ss)) eqn:E; [destruct He|]. destruct He as [<-|[]].
      unfold honest. cbn [snd fst]. repeat split. now apply N.eqb_neq.
    + apply (do_traversal_inv _ _ (sv_tree (xs_sv xs)) _ [] true (fx_guard fx)
               (fun acc => exists added, snd acc = xs_log xs ++ added /\ Forall (honest ss what sess) added)).
      * intros acc n Ha _ _. now apply pass_cb_honest.
      * exact Hnil.
Qed.

End Honest.
