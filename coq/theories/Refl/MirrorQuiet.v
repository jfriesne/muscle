(* Refl/MirrorQuiet.v -- quiet_frame: a quiet SETDATA / REMOVEDATA (nobody is told) of a session whose subtree none of the
   observer's subscription paths reaches leaves the observer's invariant J alone: no session record changes, the tree
   changes only below the sender's session node, and there the observer expects nothing, before and after. *)
From Coq Require Import List NArith ZArith Bool Arith Lia.
From Muscle Require Import Refl.Base Refl.BaseProofs Refl.Tree Refl.Matcher Refl.MatcherProofs Refl.Session
     Refl.Server Refl.ServerProofs Refl.Mirror Refl.MirrorServer Refl.MirrorSem Refl.MirrorSteps Refl.MirrorHandlers.
Import ListNotations.

Section Quiet.
Context {M : MatchOps} {L : MatchLaws M}.
Variable fx : fixes.
Variable mir : mirror.

Notation J := (J mir).
Notation V := (V mir).

(* none of the entries reaches below [dir] *)
Definition hidden_data (E : list entry) (dir : path) : Prop :=
  forall e, In e E -> forall q, is_prefix dir q = true -> pat_matches (e_pat e) q = false.

(* the quiet steps change neither the session records nor the dirty flag *)
Definition same_rest (sv sv' : server) : Prop := sv_sessions sv' = sv_sessions sv /\ sv_dirty sv' = sv_dirty sv.

Lemma same_rest_refl : forall sv, same_rest sv sv.
Proof. intros sv. split; reflexivity. Qed.

Lemma same_rest_trans : forall a b c, same_rest a b -> same_rest b c -> same_rest a c.
Proof. intros a b c [H1 H2] [H3 H4]. split; congruence. Qed.

Lemma same_rest_V : forall sv sv' o q, same_rest sv sv' -> V sv' o q = V sv o q.
Proof. intros sv sv' o q [H _]. unfold MirrorServer.V, get_session. now rewrite H. Qed.

Lemma same_rest_sess : forall sv sv', same_rest sv sv' -> same_sess sv sv'.
Proof. intros sv sv' [H _]. unfold same_sess. now rewrite H. Qed.

Lemma is_prefix_refl : forall p : path, is_prefix p p = true.
Proof. exact BaseProofs.is_prefix_refl. Qed.

Lemma expected_hidden : forall t (ss : session) D q, wf_groups (m_groups (s_subs ss)) ->
  hidden_data (all_entries (s_subs ss)) D -> is_prefix D q = true -> expected t ss q = None.
Proof.
  intros t ss D q Hw Hh Hq. unfold expected. destruct (find_node t q) as [n|]; [|reflexivity].
  destruct (matches_path (s_subs ss) q (Some (n_data n))) eqn:E; [|reflexivity].
  apply matches_path_spec in E as [e [He [Hm _]]]; auto. rewrite (Hh e He q Hq) in Hm. discriminate.
Qed.

(* quiet_frame: the tree changed only below D, the session records did not change, and the observer's entries do not
   reach below D *)
Theorem quiet_frame : forall B sv sv' o so D, inv B sv -> get_session sv o = Some so ->
  hidden_data (all_entries (s_subs so)) D ->
  same_rest sv sv' -> (forall q, is_prefix D q = false -> data_at (sv_tree sv') q = data_at (sv_tree sv) q) ->
  J sv o -> J sv' o.
Proof.
  intros B sv sv' o so D I Hso Hh Hr Hd HJ.
  pose proof (session_wf _ _ _ _ _ I Hso) as Hw.
  apply (J_frame_foreign mir sv sv' o); auto.
  - apply same_sess_for. now apply same_rest_sess.
  - intros q. now apply same_rest_V.
  - intros ss Hss q _. assert (ss = so) by congruence. subst ss.
    destruct (is_prefix D q) eqn:E.
    + now rewrite !(expected_hidden _ so D q Hw Hh E).
    + apply expected_data. now apply Hd.
Qed.

End Quiet.
