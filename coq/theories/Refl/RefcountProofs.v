(* Refl/RefcountProofs.v -- refcount_inv: in every reachable state every node's subscriber table holds, for
   every session, the number of that session's subscription paths that match the node. *)
From Coq Require Import List NArith ZArith Bool Arith Lia.
From Muscle Require Import Refl.Base Refl.BaseProofs Refl.Tree Refl.TreeProofs Refl.Matcher Refl.MatcherProofs
     Refl.Session Refl.Server Refl.ServerProofs.
Import ListNotations.

Section Refcount.
Context {M : MatchOps} {L : MatchLaws M}.
Variable fx : fixes.
Hypothesis guard_on : fx_guard fx = true.

(* the number the table must hold, in the model's own terms: NodePathMatcher::GetMatchCount of the session's
   _subscriptions on the node (filters play no part in the marks) *)
Definition subscribed_count (sv : server) (s : sid) (p : path) : N :=
  match get_session sv s with
  | Some ss => match_count (s_subs ss) p None 0
  | None => 0%N
  end.

Theorem refcount_inv : forall evs,
  wf_run fx empty_server evs -> small (run_budget evs) ->
  forall n s, In n (sv_tree (run fx evs empty_server)) ->
              tbl_get (n_subs n) s = subscribed_count (run fx evs empty_server) s (n_path n).
Proof.
  intros evs Hwf Hsmall n s Hn.
  pose proof (run_inv fx guard_on evs empty_server 0 Hsmall empty_inv Hwf) as I. cbn [Nat.add] in I.
  destruct (inv_marks _ _ _ I n Hn) as [_ H]. rewrite H. unfold count_for, subscribed_count.
  destruct (get_session (run fx evs empty_server) s) as [ss|] eqn:Hss; auto.
  apply find_session_some in Hss as [Hin _].
  destruct (inv_subs _ _ _ I ss Hin) as [[Hw _] _]. now rewrite match_count_spec.
Qed.

(* the table holds no entry for a session that is not subscribed, and no session twice *)
Theorem refcount_tables_ok : forall evs,
  wf_run fx empty_server evs -> small (run_budget evs) ->
  forall n, In n (sv_tree (run fx evs empty_server)) -> tbl_ok (n_subs n).
Proof.
  intros evs Hwf Hsmall n Hn.
  pose proof (run_inv fx guard_on evs empty_server 0 Hsmall empty_inv Hwf) as I. cbn [Nat.add] in I.
  now destruct (inv_marks _ _ _ I n Hn).
Qed.

(* the tree stays a tree: distinct paths, every node's parent present *)
Theorem tree_wf_inv : forall evs,
  wf_run fx empty_server evs -> small (run_budget evs) -> wf_tree (sv_tree (run fx evs empty_server)).
Proof.
  intros evs Hwf Hsmall.
  pose proof (run_inv fx guard_on evs empty_server 0 Hsmall empty_inv Hwf) as I. cbn [Nat.add] in I.
  exact (inv_tree _ _ _ I).
Qed.

End Refcount.

(* a boolean test of the history condition, for examples *)
Section WfRunB.
Context {M : MatchOps}.
Variable fx : fixes.

Definition wf_event_b (sv : server) (ev : event) : bool :=
  match ev with
  | EAttach s host nm => forallb (fun ss => negb (path_eqb (session_dir ss) [host; nm])) (sv_sessions sv)
  | _ => true
  end.

Fixpoint wf_run_b (sv : server) (evs : list event) : bool :=
  match evs with
  | [] => true
  | ev :: r => wf_event_b sv ev && wf_run_b (step fx sv ev) r
  end.

Lemma wf_event_b_spec : forall sv ev, wf_event_b sv ev = true -> wf_event sv ev.
Proof.
  intros sv [s host nm|s|s c] H; cbn [wf_event wf_event_b] in *; auto.
  intros ss Hin E. rewrite forallb_forall in H. specialize (H ss Hin).
  apply negb_true_iff in H. apply path_eqb_neq in H. contradiction.
Qed.

Lemma wf_run_b_spec : forall evs sv, wf_run_b sv evs = true -> wf_run fx sv evs.
Proof.
  induction evs as [|ev evs IH]; intros sv H; cbn [wf_run_b wf_run] in *; auto.
  apply andb_true_iff in H as [H1 H2]. split; [now apply wf_event_b_spec|now apply IH].
Qed.

End WfRunB.
