(* Refl/IsoBase.v -- C06: basic facts about lists, paths, subscriber tables, the flat node tree and the session list
   (Refl/Base.v, Refl/Tree.v, Refl/Server.v), and the vocabulary of the frame statement. *)
From Coq Require Import List NArith ZArith Bool Arith Lia.
From Muscle Require Import Refl.Base Refl.BaseProofs Refl.Tree Refl.TreeProofs Refl.Matcher Refl.Session Refl.Server.
Import ListNotations.

Lemma filter_comm : forall (A : Type) (f g : A -> bool) l, filter f (filter g l) = filter g (filter f l).
Proof.
  intros A f g l. induction l as [|n r IH]; [reflexivity|]. cbn [filter].
  destruct (g n) eqn:G, (f n) eqn:F; cbn [filter]; rewrite ?G, ?F; now rewrite IH.
Qed.

Lemma filter_id : forall (A : Type) (f : A -> bool) l, (forall x, In x l -> f x = true) -> filter f l = l.
Proof.
  intros A f l H. induction l as [|x l IH]; [reflexivity|]. cbn [filter]. rewrite (H x (or_introl eq_refl)). f_equal.
  apply IH. intros y Hy. apply H. now right.
Qed.

Lemma filter_absorb : forall (A : Type) (f g : A -> bool) l,
  (forall x, In x l -> f x = true -> g x = true) -> filter f (filter g l) = filter f l.
Proof.
  intros A f g l H. rewrite filter_comm. apply filter_id. intros x Hx. apply filter_In in Hx as [Hx Hf]. now apply H.
Qed.

Lemma filter_andb : forall (A : Type) (f g : A -> bool) l, filter (fun x => f x && g x) l = filter f (filter g l).
Proof.
  intros A f g l. induction l as [|x l IH]; [reflexivity|]. cbn [filter].
  destruct (g x) eqn:G, (f x) eqn:F; cbn [filter andb]; rewrite ?F; now rewrite IH.
Qed.

Lemma map_filter : forall (A B : Type) (f : A -> B) (p : A -> bool) (q : B -> bool), (forall x, p x = q (f x)) ->
  forall l, map f (filter p l) = filter q (map f l).
Proof.
  intros A B f p q H l. induction l as [|x l IH]; [reflexivity|]. cbn [map filter]. rewrite <- H.
  destruct (p x); cbn [map]; now rewrite IH.
Qed.

Lemma filter_map_pres : forall (A : Type) (f : A -> bool) (g : A -> A) l, (forall n, f (g n) = f n) -> filter f (map g l) = map g (filter f l).
Proof. intros A f g l H. symmetry. apply map_filter. intros x. symmetry. apply H. Qed.

Lemma NoDup_map_filter : forall (A B : Type) (f : A -> B) (p : A -> bool) l, NoDup (map f l) -> NoDup (map f (filter p l)).
Proof.
  intros A B f p l. induction l as [|a l IH]; intros H; [constructor|]. cbn [map filter] in *.
  inversion H as [|? ? Ha Hnd]; subst. destruct (p a); [|now apply IH]. cbn [map]. constructor; [|now apply IH].
  intros Hin. apply Ha. apply in_map_iff in Hin as [b [Hb1 Hb2]]. apply filter_In in Hb2 as [Hb2 _]. apply in_map_iff. now exists b.
Qed.

(* PR_COMMAND_BATCH is written as a local loop in the three handlers; it is a fold *)
Lemma batch_loop : forall (X C : Type) (step : X -> C -> X) l x,
  (fix go (l : list C) (x : X) : X := match l with [] => x | c :: r => go r (step x c) end) l x = fold_left step l x.
Proof. intros X C step l. induction l as [|c l IH]; intros x; [reflexivity|apply IH]. Qed.

Lemma fold_steps : forall (X C : Type) (R : X -> X -> Prop) (I : X -> Prop) (f : X -> C -> X) l,
  (forall x, R x x) -> (forall x y z, R x y -> R y z -> R x z) -> (forall x y, R x y -> I x -> I y) ->
  (forall x c, In c l -> I x -> R x (f x c)) -> forall x, I x -> R x (fold_left f l x).
Proof.
  intros X C R I f l Hr Ht Hi. induction l as [|c l IH]; intros H x Hx; cbn [fold_left]; [apply Hr|].
  assert (H1 : R x (f x c)) by (apply H; [now left|exact Hx]).
  apply (Ht _ _ _ H1). apply IH; [intros y c' Hc'; apply H; now right|exact (Hi _ _ H1 Hx)].
Qed.

Lemma fold_sim : forall (A X Y : Type) (Rl : X -> Y -> Prop) (fF : X -> A -> X) (fE : Y -> A -> Y) (l : list A) x y,
  (forall a x y, In a l -> Rl x y -> Rl (fF x a) (fE y a)) -> Rl x y -> Rl (fold_left fF l x) (fold_left fE l y).
Proof.
  intros A X Y Rl fF fE l. induction l as [|a l IH]; intros x y H H0; cbn [fold_left]; [exact H0|].
  apply IH; [intros; apply H; [now right|assumption]|]. apply H; [now left|exact H0].
Qed.

Lemma fold_chain : forall (X C : Type) (R : X -> X -> Prop) (f : X -> C -> X) l,
  (forall x, R x x) -> (forall x y z, R x y -> R y z -> R x z) ->
  (forall x c, In c l -> R x (f x c)) -> forall x, R x (fold_left f l x).
Proof. intros X C R f l Hr Ht H x. apply (fold_steps X C R (fun _ => True)); auto. Qed.

(* ------------------------------------------------------------------ paths *)

Lemma path_eqb_sym : forall p q, path_eqb p q = path_eqb q p.
Proof. exact BaseProofs.path_eqb_sym. Qed.

Lemma is_prefix_app : forall p r, is_prefix p (p ++ r) = true.
Proof. intros p r. apply is_prefix_spec. now exists r. Qed.

Lemma is_prefix_trans : forall p q r, is_prefix p q = true -> is_prefix q r = true -> is_prefix p r = true.
Proof.
  intros p q r H1 H2. apply is_prefix_spec in H1 as [a Ha]. apply is_prefix_spec in H2 as [b Hb].
  apply is_prefix_spec. exists (a ++ b). subst. now rewrite app_assoc.
Qed.

Lemma is_prefix_snoc : forall p q k, is_prefix p q = true -> is_prefix p (q ++ [k]) = true.
Proof. intros p q k H. eapply is_prefix_trans; [exact H|apply is_prefix_app]. Qed.

Lemma is_prefix_length : forall p q, is_prefix p q = true -> length p <= length q.
Proof. intros p q H. apply is_prefix_spec in H as [r ->]. rewrite app_length. lia. Qed.

(* ------------------------------------------------------------------ subscriber tables *)

Definition tbl_without (s : sid) (t : subtbl) : subtbl := filter (fun kc => negb (N.eqb (fst kc) s)) t.

Lemma tbl_without_put : forall t s c, tbl_without s (tbl_put t s c) = tbl_without s t.
Proof.
  unfold tbl_without. induction t as [|[k c0] r IH]; intros s c; cbn.
  - now rewrite N.eqb_refl.
  - destruct (N.eqb k s) eqn:E; cbn; rewrite E; cbn; [reflexivity|]. now rewrite IH.
Qed.

Lemma tbl_without_remove : forall t s, tbl_without s (tbl_remove t s) = tbl_without s t.
Proof.
  unfold tbl_without. induction t as [|[k c0] r IH]; intros s; cbn; [reflexivity|].
  destruct (N.eqb k s) eqn:E; cbn; [reflexivity|]. rewrite E. cbn. now rewrite IH.
Qed.

Lemma tbl_without_adjust : forall t s d, tbl_without s (tbl_adjust t s d) = tbl_without s t.
Proof.
  intros t s d. unfold tbl_adjust. destruct (Z.eqb d 0); [reflexivity|].
  match goal with |- context [if N.ltb 0 ?x then _ else _] => destruct (N.ltb 0 x) end.
  - apply tbl_without_put.
  - apply tbl_without_remove.
Qed.

Lemma tbl_get_other_put : forall t s c k, k <> s -> tbl_get (tbl_put t s c) k = tbl_get t k.
Proof.
  induction t as [|[k0 c0] r IH]; intros s c k Hk; cbn.
  - destruct (N.eqb s k) eqn:E; [apply N.eqb_eq in E; congruence|reflexivity].
  - destruct (N.eqb k0 s) eqn:E; cbn.
    + apply N.eqb_eq in E. subst k0. destruct (N.eqb s k) eqn:E2; [apply N.eqb_eq in E2; congruence|reflexivity].
    + destruct (N.eqb k0 k); [reflexivity|]. now apply IH.
Qed.

(* ------------------------------------------------------------------ lookup *)

Lemma get_child_In : forall t p k c, get_child t p k = Some c -> In c t /\ n_path c = p ++ [k].
Proof. intros t p k c H. unfold get_child in H. now apply find_node_some. Qed.

(* ------------------------------------------------------------------ the frame vocabulary *)

(* a node seen without session s's own mark on it *)
Definition strip (s : sid) (n : node) : node := mkNode (n_path n) (n_data n) (tbl_without s (n_subs n)).

Definition outside (dir : path) (n : node) : bool := negb (is_prefix dir (n_path n)).

(* everything of the tree that lies outside [dir], in list (= creation = child iteration) order, without s's marks *)
Definition foreign_view (s : sid) (dir : path) (t : tree) : list node := map (strip s) (filter (outside dir) t).

Lemma fv_app : forall s dir a b, foreign_view s dir (a ++ b) = foreign_view s dir a ++ foreign_view s dir b.
Proof. intros. unfold foreign_view. now rewrite filter_app, map_app. Qed.

Lemma fv_add_inside : forall s dir t n, is_prefix dir (n_path n) = true -> foreign_view s dir (add_node t n) = foreign_view s dir t.
Proof.
  intros s dir t n H. unfold add_node. rewrite fv_app. unfold foreign_view at 2. cbn. unfold outside. rewrite H. cbn. apply app_nil_r.
Qed.

Lemma fv_remove_inside : forall s dir t p, is_prefix dir p = true -> foreign_view s dir (remove_node t p) = foreign_view s dir t.
Proof.
  intros s dir t p H. unfold foreign_view, remove_node. f_equal.
  induction t as [|n r IH]; cbn; [reflexivity|].
  destruct (path_eqb (n_path n) p) eqn:E; cbn.
  - apply path_eqb_eq in E. unfold outside at 2. rewrite E, H. cbn. exact IH.
  - destruct (outside dir n); [now rewrite IH|exact IH].
Qed.

Lemma fv_map : forall s dir (g : node -> node) t,
  (forall n, n_path (g n) = n_path n) ->
  (forall n, outside dir n = true -> strip s (g n) = strip s n) ->
  foreign_view s dir (map g t) = foreign_view s dir t.
Proof.
  intros s dir g t Hp Hs. unfold foreign_view. induction t as [|n r IH]; cbn; [reflexivity|].
  assert (Ho : outside dir (g n) = outside dir n) by (unfold outside; now rewrite Hp).
  rewrite Ho. destruct (outside dir n) eqn:E; cbn; [|exact IH]. rewrite IH. f_equal. now apply Hs.
Qed.

Lemma fv_set_data_inside : forall s dir t p d, is_prefix dir p = true -> foreign_view s dir (set_data t p d) = foreign_view s dir t.
Proof.
  intros s dir t p d H. unfold set_data, map_node. apply fv_map.
  - intros n. destruct (path_eqb (n_path n) p); reflexivity.
  - intros n Ho. destruct (path_eqb (n_path n) p) eqn:E; [|reflexivity].
    apply path_eqb_eq in E. unfold outside in Ho. rewrite E, H in Ho. discriminate.
Qed.

Lemma fv_adjust_subs : forall s dir t p d, foreign_view s dir (adjust_subs t p s d) = foreign_view s dir t.
Proof.
  intros s dir t p d. unfold adjust_subs, map_node. apply fv_map.
  - intros n. destruct (path_eqb (n_path n) p); reflexivity.
  - intros n _. destruct (path_eqb (n_path n) p); [|reflexivity]. unfold strip. cbn [n_path n_data n_subs]. now rewrite tbl_without_adjust.
Qed.

Section Sessions.
Context {M : MatchOps}.

Lemma get_session_In : forall sv s ss, get_session sv s = Some ss -> In ss (sv_sessions sv) /\ s_id ss = s.
Proof.
  intros sv s ss. unfold get_session. induction (sv_sessions sv) as [|x l IH]; cbn; [discriminate|].
  destruct (N.eqb (s_id x) s) eqn:E.
  - intros H; inversion H; subst. split; [now left|now apply N.eqb_eq].
  - intros H. apply IH in H as [H1 H2]. split; [now right|exact H2].
Qed.

Lemma get_session_id : forall sv s ss, get_session sv s = Some ss -> s_id ss = s.
Proof. intros sv s ss H. now apply get_session_In in H. Qed.

(* what a lookup by id returns, seen through a projection f that shows the id, is read off the projected list *)
Lemma find_session_through : forall (A : Type) (f : session -> A) (ida : A -> sid), (forall x, ida (f x) = s_id x) ->
  forall l k, option_map f (find_session l k) = find (fun a => N.eqb (ida a) k) (map f l).
Proof.
  intros A f ida H l k. induction l as [|x l IH]; cbn; [reflexivity|]. rewrite H.
  destruct (N.eqb (s_id x) k); [reflexivity|exact IH].
Qed.

Lemma find_session_proj : forall (A : Type) (f : session -> A) (ida : A -> sid), (forall x, ida (f x) = s_id x) ->
  forall l l' k, map f l' = map f l -> option_map f (find_session l' k) = option_map f (find_session l k).
Proof. intros A f ida H l l' k E. rewrite !(find_session_through A f ida H). now rewrite E. Qed.

Lemma filter_proj : forall (A B : Type) (f : A -> B) (p : A -> bool) (q : B -> bool), (forall x, p x = q (f x)) ->
  forall l l', map f l' = map f l -> map f (filter p l') = map f (filter p l).
Proof. intros A B f p q H l l' E. rewrite !(map_filter A B f p q H). now rewrite E. Qed.

Lemma map_proj : forall (A B C : Type) (f : A -> B) (g : A -> C) (h : B -> C), (forall x, g x = h (f x)) ->
  forall l l', map f l' = map f l -> map g l' = map g l.
Proof.
  intros A B C f g h H l l' E. rewrite (map_ext g (fun x => h (f x)) H l), (map_ext g (fun x => h (f x)) H l'), <- (map_map f h l), <- (map_map f h l'). now rewrite E.
Qed.

End Sessions.

(* NodeChanged does nothing or calls NodeChangedAux, and NotifySubscribersThatNodeChanged is a sequence of NodeChanged calls
   for sessions other than the one that caused the change: whatever preorder NodeChangedAux steps lie in, they lie in *)
Section Notify.
Context {M : MatchOps}.
Variable R : server -> server -> Prop.
Hypothesis Rrefl : forall sv, R sv sv.
Hypothesis Rtrans : forall a b c, R a b -> R b c -> R a c.

Lemma node_changed_rule : forall sv u q d old r, (forall r', R sv (node_changed_aux sv u q d r')) -> R sv (node_changed sv u q d old r).
Proof.
  intros sv u q d old r H. unfold node_changed. destruct (get_session sv u); [|apply Rrefl]. destruct (N.ltb _ _); [|apply H].
  destruct r; [destruct (matches_node _ _ _ _); [apply H|apply Rrefl]|].
  destruct old; repeat (match goal with |- context [if ?b then _ else _] => destruct b end); try apply H; apply Rrefl.
Qed.

Lemma notify_changed_rule : forall sv by_ q d old r,
  (forall sv' u r', u <> by_ -> R sv' (node_changed_aux sv' u q d r')) -> R sv (notify_changed sv by_ q d old r).
Proof.
  intros sv by_ q d old r H. unfold notify_changed. destruct (find_node _ _) as [n|]; [|apply Rrefl].
  apply fold_chain; [exact Rrefl|exact Rtrans|]. intros sv' kc _. destruct (N.eqb (fst kc) by_) eqn:E; [apply Rrefl|].
  apply node_changed_rule. intros r'. apply H. now apply N.eqb_neq.
Qed.

End Notify.

(* SetDataNode and DataNode::RemoveChild edit the tree at paths below the one they are given and announce each edit:
   whatever preorder these edits and announcements lie in, the whole operation lies in *)
Section Edits.
Context {M : MatchOps}.
Variable R : server -> server -> Prop.
Hypothesis Rrefl : forall sv, R sv sv.
Hypothesis Rtrans : forall a b c, R a b -> R b c -> R a c.
Variable dir : path.

Lemma set_data_loop_rule :
  (forall sv p d, is_prefix dir p = true -> R sv (set_tree sv (set_data (sv_tree sv) p d))) ->
  (forall sv n, is_prefix dir (n_path n) = true -> R sv (set_tree sv (add_node (sv_tree sv) n))) ->
  (forall sv by_ p d old r, is_prefix dir p = true -> R sv (notify_changed sv by_ p d old r)) ->
  forall cl sv by_ pp d dc dw q, is_prefix dir pp = true -> R sv (set_data_loop sv by_ pp cl d dc dw q).
Proof.
  intros Rset Radd Rnote. induction cl as [|k rest IH]; intros sv by_ pp d dc dw q Hpp; cbn [set_data_loop]; [apply Rrefl|].
  assert (Hp : is_prefix dir (pp ++ [k]) = true) by now apply is_prefix_snoc.
  destruct (find_node (sv_tree sv) (pp ++ [k])) as [n|].
  - destruct rest as [|k2 rest']; [|now apply IH]. destruct dw; [apply Rrefl|].
    destruct q; [now apply Rset|]. eapply Rtrans; [|now apply Rnote]. now apply Rset.
  - destruct dc; [apply Rrefl|]. destruct (Nat.leb _ _); [apply Rrefl|].
    match goal with |- R sv (if ?l then ?a else _) => assert (Ha : R sv a) end.
    { destruct q; [now apply Radd|]. eapply Rtrans; [|now apply Rnote]. now apply Radd. }
    destruct rest as [|k2 rest']; [exact Ha|]. eapply Rtrans; [exact Ha|now apply IH].
Qed.

Lemma remove_subtree_rule :
  (forall sv p, is_prefix dir p = true -> R sv (set_tree sv (remove_node (sv_tree sv) p))) ->
  (forall sv by_ p d old r, is_prefix dir p = true -> R sv (notify_changed sv by_ p d old r)) ->
  forall sv by_ p notify, is_prefix dir p = true -> R sv (remove_subtree sv by_ p notify).
Proof.
  intros Rdel Rnote sv by_ p notify Hp. unfold remove_subtree. apply fold_chain; [exact Rrefl|exact Rtrans|]. intros sv' q Hq.
  apply removal_order_below in Hq. assert (Hdq : is_prefix dir q = true) by (eapply is_prefix_trans; eassumption).
  destruct (find_node _ _); [|apply Rrefl]. cbv zeta. eapply Rtrans; [|now apply Rdel]. destruct notify; [now apply Rnote|apply Rrefl].
Qed.

End Edits.
