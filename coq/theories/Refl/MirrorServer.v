(* Refl/MirrorServer.v -- what the update machinery of the server does to a subscriber's *virtual mirror*:
   the mirror its client will hold once everything queued for it (sent but not yet applied, and pending)
   has been applied.  Flushes do not change it, so max-items batching and the forced flush are invisible
   at this level. *)
From Coq Require Import List NArith ZArith Bool Arith Lia.
From Muscle Require Import Refl.Base Refl.BaseProofs Refl.Session Refl.Server Refl.ServerProofs Refl.Mirror
     Refl.MirrorBase.
Import ListNotations.

Section VM.
Context {M : MatchOps} {L : MatchLaws M}.
Variable mir : mirror.          (* what the client holds now *)

Definition vm (ss : session) : mirror :=
  let m1 := apply_all mir (s_out ss) in
  match s_pending ss with Some d => apply_di m1 d | None => m1 end.

(* the virtual mirror of the session with id o, read at path q (None: no such session) *)
Definition V (sv : server) (o : sid) (q : path) : option (option payload) :=
  option_map (fun ss => mirror_get (vm ss) q) (get_session sv o).

Lemma apply_all_snoc : forall m ds d, apply_all m (ds ++ [d]) = apply_di (apply_all m ds) d.
Proof. intros m ds d. unfold apply_all. now rewrite fold_left_app. Qed.

Lemma vm_push : forall ss, vm (push_pending ss) = vm ss.
Proof.
  intros ss. unfold push_pending. destruct (s_pending ss) as [d|] eqn:E; [|reflexivity].
  unfold vm. cbn [set_pending send s_out s_pending]. rewrite apply_all_snoc. now rewrite E.
Qed.

Lemma apply_di_empty : forall m q, mirror_get (apply_di m empty_di) q = mirror_get m q.
Proof. intros m q. rewrite apply_di_get. reflexivity. Qed.

Definition pend_ok (sv : server) : Prop :=
  (forall ss d, In ss (sv_sessions sv) -> s_pending ss = Some d -> di_ok d)
  /\ ((exists ss, In ss (sv_sessions sv) /\ s_pending ss <> None) -> sv_dirty sv = true).

Lemma V_push_all : forall sv o q, V (push_all sv) o q = V sv o q.
Proof.
  intros sv o q. unfold V, push_all. destruct (sv_dirty sv); auto.
  unfold get_session. cbn [sv_sessions].
  induction (sv_sessions sv) as [|x l IH]; cbn; auto.
  assert (E : s_id (push_pending x) = s_id x) by (unfold push_pending; destruct (s_pending x); reflexivity).
  rewrite E. destruct (N.eqb (s_id x) o); auto. cbn. now rewrite vm_push.
Qed.

Lemma pend_ok_push_all : forall sv, pend_ok sv -> pend_ok (push_all sv).
Proof.
  intros sv Hpo. unfold push_all. destruct (sv_dirty sv) eqn:Ed; [|exact Hpo]. destruct Hpo as [H1 H2].
  split; cbn [sv_sessions sv_dirty].
  - intros ss d Hin Hp. apply in_map_iff in Hin as [x [Hx _]]. subst ss.
    unfold push_pending in Hp. destruct (s_pending x) eqn:E; cbn in Hp; congruence.
  - intros [ss [Hin Hp]]. apply in_map_iff in Hin as [x [Hx _]]. subst ss.
    exfalso. apply Hp. unfold push_pending. destruct (s_pending x) eqn:E; [reflexivity|exact E].
Qed.

Lemma push_all_no_pending : forall sv, pend_ok sv -> forall ss, In ss (sv_sessions (push_all sv)) -> s_pending ss = None.
Proof.
  intros sv [H1 H2] ss Hin. unfold push_all in Hin. destruct (sv_dirty sv) eqn:Ed.
  - cbn in Hin. apply in_map_iff in Hin as [x [Hx _]]. subst ss. unfold push_pending. destruct (s_pending x) eqn:E; [reflexivity|exact E].
  - destruct (s_pending ss) eqn:E; auto. exfalso.
    assert (false = true); [|discriminate]. apply H2. exists ss. split; auto. congruence.
Qed.

Lemma V_upd_other : forall sv s f o q, (forall x, s_id (f x) = s_id x) -> s <> o ->
  V (upd_session sv s f) o q = V sv o q.
Proof.
  intros sv s f o q Hf Hne. unfold V. rewrite get_session_upd by auto.
  apply N.eqb_neq in Hne. now rewrite Hne.
Qed.

Lemma V_set_dirty : forall sv b o q, V (set_dirty sv b) o q = V sv o q.
Proof. reflexivity. Qed.

Lemma V_set_tree : forall sv t o q, V (set_tree sv t) o q = V sv o q.
Proof. reflexivity. Qed.

Lemma pend_ok_upd : forall sv s d, pend_ok sv -> di_ok d ->
  pend_ok (set_dirty (upd_session sv s (fun x => set_pending x (Some d))) true).
Proof.
  intros sv s d [H1 H2] Hd. split; cbn [sv_sessions sv_dirty set_dirty upd_session]; auto.
  intros ss d' Hin Hp. apply in_map_iff in Hin as [x [Hx Hin]]. subst ss.
  destruct (N.eqb (s_id x) s); [cbn in Hp; congruence|eauto].
Qed.

Lemma pending_or_new_ok : forall sv ss, pend_ok sv -> In ss (sv_sessions sv) -> di_ok (pending_or_new ss).
Proof.
  intros sv ss [H1 _] Hin. unfold pending_or_new. destruct (s_pending ss) eqn:E; [eauto|apply empty_di_ok].
Qed.

Lemma pend_ok_nca : forall sv s p d r, pend_ok sv -> pend_ok (node_changed_aux sv s p d r).
Proof.
  intros sv s p d r H. unfold node_changed_aux.
  destruct (get_session sv s) as [ss|] eqn:Hss; auto.
  assert (Hin : In ss (sv_sessions sv)) by (apply find_session_some in Hss; tauto).
  pose proof (pending_or_new_ok sv ss H Hin) as Hpo.
  cbv zeta.
  match goal with |- pend_ok (match get_session ?X s with _ => _ end) => set (sv1 := X) end.
  assert (H1 : pend_ok sv1).
  { unfold sv1. destruct r.
    - destruct (di_has_set (pending_or_new ss) p).
      + apply pend_ok_upd; [|apply di_add_removed_ok, empty_di_ok].
        apply pend_ok_push_all. now apply pend_ok_upd.
      + apply pend_ok_upd; auto.
    - apply pend_ok_upd; auto. now apply di_add_set_ok. }
  destruct (get_session sv1 s) as [ss1|]; auto.
  destruct (s_pending ss1); auto.
  destruct (N.leb _ _); auto. now apply pend_ok_push_all.
Qed.

Lemma V_set_pending : forall sv s ss d q, get_session sv s = Some ss ->
  V (set_dirty (upd_session sv s (fun x => set_pending x (Some d))) true) s q
  = Some (mirror_get (apply_di (apply_all mir (s_out ss)) d) q).
Proof.
  intros sv s ss d q Hss. rewrite V_set_dirty. unfold V. rewrite get_session_upd by reflexivity.
  now rewrite N.eqb_refl, Hss.
Qed.

Lemma vm_pending_or_new : forall ss q, mirror_get (vm ss) q = mirror_get (apply_di (apply_all mir (s_out ss)) (pending_or_new ss)) q.
Proof. intros ss q. unfold vm, pending_or_new. destruct (s_pending ss); [reflexivity|]. now rewrite apply_di_empty. Qed.

(* the effect on the session being told, and on everybody else *)
Lemma V_nca : forall sv s p d r o q, pend_ok sv -> (exists ss, get_session sv s = Some ss) ->
  V (node_changed_aux sv s p d r) o q
  = if N.eqb o s && path_eqb p q
    then option_map (fun _ => if r then None else Some d) (get_session sv o)
    else V sv o q.
Proof.
  intros sv s p d r o q Hpo [ss Hss]. unfold node_changed_aux. rewrite Hss. cbv zeta.
  assert (Hin : In ss (sv_sessions sv)) by (apply find_session_some in Hss; tauto).
  pose proof (pending_or_new_ok sv ss Hpo Hin) as Hdo.
  (* the final flush never matters *)
  match goal with |- V (match get_session ?X s with _ => _ end) o q = _ => set (sv1 := X) end.
  assert (Hfin : forall Y, V (match get_session sv1 s with
                              | Some ss1 => match s_pending ss1 with
                                            | Some pd => if N.leb (s_max ss1) (di_num_names pd) then push_all sv1 else sv1
                                            | None => sv1
                                            end
                              | None => sv1
                              end) o q = Y <-> V sv1 o q = Y).
  { intros Y. destruct (get_session sv1 s) as [ss1|]; [|reflexivity].
    destruct (s_pending ss1); [|reflexivity]. destruct (N.leb _ _); [|reflexivity]. now rewrite V_push_all. }
  apply Hfin. clear Hfin. unfold sv1. clear sv1.
  destruct (N.eqb o s) eqn:Eos; cbn [andb].
  - (* the session told *)
    apply N.eqb_eq in Eos. subst o. rewrite Hss. cbn [option_map].
    assert (HV0 : forall q', V sv s q' = Some (mirror_get (apply_di (apply_all mir (s_out ss)) (pending_or_new ss)) q')).
    { intros q'. unfold V. rewrite Hss. cbn [option_map]. now rewrite vm_pending_or_new. }
    destruct r.
    + destruct (di_has_set (pending_or_new ss) p) eqn:Ehs.
      * (* flush, then a fresh Message holding the removal *)
        set (svA := set_dirty (upd_session sv s (fun x => set_pending x (Some (pending_or_new ss)))) true).
        assert (HpA : pend_ok svA) by (now apply pend_ok_upd).
        assert (HVp : V (push_all svA) s q = V sv s q).
        { rewrite V_push_all, HV0. apply V_set_pending, Hss. }
        unfold V at 1 in HVp.
        destruct (get_session (push_all svA) s) as [ssp|] eqn:Hssp; [|rewrite HV0 in HVp; discriminate].
        assert (Hnp : s_pending ssp = None).
        { apply (push_all_no_pending svA HpA). apply find_session_some in Hssp. tauto. }
        rewrite (V_set_pending _ s ssp _ q Hssp), apply_di_get, di_lookup_add_removed by reflexivity.
        destruct (path_eqb p q); [reflexivity|]. rewrite <- HVp. cbn [option_map]. unfold di_lookup, vm. cbn. now rewrite Hnp.
      * rewrite HV0, (V_set_pending sv s ss _ q Hss), !apply_di_get, di_lookup_add_removed by exact Ehs.
        now destruct (path_eqb p q).
    + rewrite HV0, (V_set_pending sv s ss _ q Hss), !apply_di_get, di_lookup_add_set by exact Hdo.
      now destruct (path_eqb p q).
  - (* somebody else *)
    apply N.eqb_neq in Eos. assert (Hne : s <> o) by congruence.
    destruct r.
    + destruct (di_has_set (pending_or_new ss) p).
      * rewrite V_set_dirty, V_upd_other, V_push_all, V_set_dirty, V_upd_other by (auto; reflexivity). reflexivity.
      * rewrite V_set_dirty, V_upd_other by (auto; reflexivity). reflexivity.
    + rewrite V_set_dirty, V_upd_other by (auto; reflexivity). reflexivity.
Qed.

End VM.
