(* Refl/Examples.v -- concrete histories over the instance of Concrete.v: the premises of the C04 theorems are
   satisfiable by non-trivial states. *)
From Coq Require Import List NArith ZArith Bool Arith Lia.
From Muscle Require Import Refl.Tree Refl.Server Refl.ServerProofs Refl.RefcountProofs Refl.Concrete.
Import ListNotations.
Local Open Scope N_scope.

(* names: host 1; session nodes 10, 11, 12; data names a = 20, ab = 21, ac = 22, b = 23 *)
Definition a_star : cclause := CWild [20; 21; 22].

(* two sessions; session 0 subscribes to "a*" and to "ab" with the filter v > 3; session 1 creates ab, ac, b/ab *)
Definition ex1 : list event :=
  [ EAttach 0 1 10; EAttach 1 1 11;
    ECmd 0 (CSubscribe false [(Rel [a_star], None); (Rel [CLit 21], Some 3)]);
    ECmd 1 (CSetData 0 [([21], 6); ([22], 2); ([23; 21], 9)]);
    ECmd 0 (CUnsubscribe [Rel [CLit 21]]);
    ECmd 1 (CSetData 0 [([21], 7)]) ].

Definition ex1_state : server := run all_fixed ex1 empty_server.

Example ex1_premises : wf_run all_fixed empty_server ex1 /\ small (run_budget ex1).
Proof. split; [apply wf_run_b_spec; vm_compute; reflexivity|vm_compute; reflexivity]. Qed.

(* non-trivial: five nodes; /1/11/21 ("ab") is marked once by session 0 after the unsubscribe, was marked twice before *)
Example ex1_nontrivial :
  length (sv_tree ex1_state) = 7%nat
  /\ option_map (fun n => tbl_get (n_subs n) 0) (find_node (sv_tree ex1_state) [1; 11; 21]) = Some 1
  /\ option_map (fun n => tbl_get (n_subs n) 0)
       (find_node (sv_tree (run all_fixed (firstn 4 ex1) empty_server)) [1; 11; 21]) = Some 2.
Proof. vm_compute. repeat split; reflexivity. Qed.
