(* Refl/IsoFrame.v -- C06, first half: whatever a session sends, everything outside its own subtree stays as it is.

   For every handler of Refl/Server.v and of the dispatcher Refl/IsoModel.v: the nodes outside the sender's session
   directory (paths, payloads, list order = child iteration order, subscriber tables up to the sender's own mark), the
   identity, subscriptions and limits of every other session, the privilege bits of every other session and -- for a
   sender without PR_PRIVILEGE_KICK -- the set of sessions marked for removal are the same before and after.
   No well-formedness premise is needed: the statement holds in every state, reachable or not. *)
From Coq Require Import List NArith ZArith Bool Arith Lia.
From Muscle Require Import Gen.Consts Refl.Base Refl.BaseProofs Refl.Tree Refl.Matcher Refl.Traverse Refl.Session Refl.Server
     Refl.ServerProofs Refl.IsoModel Refl.IsoBase Refl.IsoTrav.
Import ListNotations.

Section Frame.
Context {M : MatchOps}.
Variable fx : fixes.

(* ------------------------------------------------------------------ vocabulary *)

Definition sident (x : session) : sid * name * name := (s_id x, s_host x, s_name x).
Definition sparams (x : session) : sid * name * name * matcher * N := (s_id x, s_host x, s_name x, s_subs x, s_max x).

Definition idents (sv : server) : list (sid * name * name) := map sident (sv_sessions sv).
Definition all_params (sv : server) := map sparams (sv_sessions sv).
Definition others_params (s : sid) (sv : server) :=
  map sparams (filter (fun x => negb (N.eqb (s_id x) s)) (sv_sessions sv)).

(* nothing but pending / delivered update Messages and the dirty flag differ *)
Definition same_state (sv sv' : server) : Prop :=
  sv_tree sv' = sv_tree sv /\ all_params sv' = all_params sv.

(* the frame of session s whose directory is dir *)
Definition frame (s : sid) (dir : path) (sv sv' : server) : Prop :=
  foreign_view s dir (sv_tree sv') = foreign_view s dir (sv_tree sv) /\
  others_params s sv' = others_params s sv /\
  idents sv' = idents sv.

(* if s is attached, its directory is dir: what a frame hands on to the next step *)
Definition lives (s : sid) (dir : path) (sv : server) : Prop :=
  forall ss, get_session sv s = Some ss -> session_dir ss = dir.

Lemma same_state_refl : forall sv, same_state sv sv.
Proof. intros; split; reflexivity. Qed.

Lemma same_state_trans : forall a b c, same_state a b -> same_state b c -> same_state a c.
Proof. intros a b c [H1 H2] [H3 H4]. split; congruence. Qed.

Lemma frame_refl : forall s dir sv, frame s dir sv sv.
Proof. intros; repeat split; reflexivity. Qed.

Lemma frame_trans : forall s dir a b c, frame s dir a b -> frame s dir b c -> frame s dir a c.
Proof. intros s dir a b c [H1 [H2 H3]] [H4 [H5 H6]]. repeat split; congruence. Qed.

Lemma all_params_idents : forall sv sv', all_params sv' = all_params sv -> idents sv' = idents sv.
Proof. intros sv sv'. apply (map_proj _ _ _ sparams sident (fun c => fst (fst c))). reflexivity. Qed.

Lemma all_params_others : forall s sv sv', all_params sv' = all_params sv -> others_params s sv' = others_params s sv.
Proof.
  intros s sv sv'. apply (filter_proj _ _ sparams _ (fun c => negb (N.eqb (fst (fst (fst (fst c)))) s))). reflexivity.
Qed.

Lemma same_state_frame : forall s dir sv sv', same_state sv sv' -> frame s dir sv sv'.
Proof.
  intros s dir sv sv' [H1 H2]. repeat split.
  - now rewrite H1.
  - now apply all_params_others.
  - now apply all_params_idents.
Qed.

Lemma get_session_idents : forall sv sv' k, idents sv' = idents sv ->
  option_map sident (get_session sv' k) = option_map sident (get_session sv k).
Proof. intros sv sv' k. apply (find_session_proj _ sident (fun c => fst (fst c))). reflexivity. Qed.

Lemma lives_here : forall sv s ss, get_session sv s = Some ss -> lives s (session_dir ss) sv.
Proof. intros sv s ss H x Hx. congruence. Qed.

Lemma lives_idents : forall s dir sv sv', idents sv' = idents sv -> lives s dir sv -> lives s dir sv'.
Proof.
  intros s dir sv sv' H Hl y Hy. pose proof (get_session_idents sv sv' s H) as E. rewrite Hy in E.
  destruct (get_session sv s) as [x|] eqn:Hx; [|discriminate]. rewrite <- (Hl x Hx).
  injection E as _ E1 E2. unfold session_dir. now rewrite E1, E2.
Qed.

Lemma frame_lives : forall s dir d sv sv', frame s dir sv sv' -> lives s d sv -> lives s d sv'.
Proof. intros s dir d sv sv' [_ [_ H]]. now apply lives_idents. Qed.

Lemma frame_steps : forall (C : Type) (f : server -> C -> server) s dir l,
  (forall sv c, In c l -> lives s dir sv -> frame s dir sv (f sv c)) ->
  forall sv, lives s dir sv -> frame s dir sv (fold_left f l sv).
Proof.
  intros C f s dir l. apply fold_steps; [apply frame_refl|apply frame_trans|]. intros x y. apply frame_lives.
Qed.

(* ------------------------------------------------------------------ session updates *)

Lemma upd_session_same : forall sv s f, (forall x, sparams (f x) = sparams x) -> same_state sv (upd_session sv s f).
Proof.
  intros sv s f Hf. split; [reflexivity|]. unfold all_params, upd_session. cbn. rewrite map_map.
  apply map_ext. intros x. destruct (N.eqb (s_id x) s); [apply Hf|reflexivity].
Qed.

Lemma upd_session_frame : forall sv s dir f, (forall x, sident (f x) = sident x) -> frame s dir sv (upd_session sv s f).
Proof.
  intros sv s dir f Hf. assert (Hid : forall x, s_id (f x) = s_id x) by (intros x; exact (f_equal (fun c => fst (fst c)) (Hf x))).
  repeat split; unfold others_params, idents, upd_session; cbn [sv_sessions sv_tree].
  - rewrite (filter_map_pres _ (fun x => negb (N.eqb (s_id x) s))), map_map by (intros x; destruct (N.eqb (s_id x) s) eqn:E; now rewrite ?Hid, ?E).
    apply map_ext_in. intros x Hx. apply filter_In in Hx as [_ Hx]. apply negb_true_iff in Hx. now rewrite Hx.
  - rewrite map_map. apply map_ext. intros x. destruct (N.eqb (s_id x) s); [apply Hf|reflexivity].
Qed.

Lemma set_dirty_same : forall sv b, same_state sv (set_dirty sv b).
Proof. intros; split; reflexivity. Qed.

Lemma push_all_same : forall sv, same_state sv (push_all sv).
Proof.
  intros sv. unfold push_all. destruct (sv_dirty sv); [|apply same_state_refl].
  split; [reflexivity|]. unfold all_params. cbn. rewrite map_map. apply map_ext.
  intros x. unfold push_pending. destruct (s_pending x); reflexivity.
Qed.

(* peels one push_all / set_dirty / upd_session (of fields other than the parameters) off the right-hand state *)
Ltac ss_step :=
  match goal with
  | |- same_state ?a ?a => apply same_state_refl
  | |- same_state ?a (push_all ?b) => eapply same_state_trans; [|apply push_all_same]
  | |- same_state ?a (set_dirty ?b _) => eapply same_state_trans; [|apply set_dirty_same]
  | |- same_state ?a (upd_session ?b _ _) => eapply same_state_trans; [|apply upd_session_same; intros; reflexivity]
  end.

Lemma node_changed_aux_same : forall sv s p d removed, same_state sv (node_changed_aux sv s p d removed).
Proof.
  intros sv s p d removed. unfold node_changed_aux.
  destruct (get_session sv s) as [ss|]; [|apply same_state_refl].
  match goal with |- same_state sv (match get_session ?X s with _ => _ end) => set (sv1 := X) end.
  assert (H1 : same_state sv sv1).
  { subst sv1. destruct removed; [destruct (di_has_set _ _)|]; repeat ss_step. }
  destruct (get_session sv1 s) as [ss1|]; [|exact H1].
  destruct (s_pending ss1); [|exact H1]. destruct (N.leb _ _); [|exact H1].
  eapply same_state_trans; [exact H1|apply push_all_same].
Qed.

Lemma notify_changed_same : forall sv by_ p d old removed, same_state sv (notify_changed sv by_ p d old removed).
Proof.
  intros. apply (notify_changed_rule same_state same_state_refl same_state_trans). intros. apply node_changed_aux_same.
Qed.

(* ------------------------------------------------------------------ GETDATA *)

Lemma getdata_cb_same : forall s sv0 acc n, same_state sv0 (snd acc) -> same_state sv0 (snd (fst (getdata_cb s acc n))).
Proof.
  intros s sv0 [reply sv] n H. cbn in H. unfold getdata_cb.
  destruct (get_session sv s) as [ss|]; [|exact H].
  destruct (own_node ss (n_path n)); [exact H|].
  destruct (N.leb _ _); cbn; [|exact H].
  eapply same_state_trans; [exact H|apply upd_session_same; intros; reflexivity].
Qed.

Lemma do_get_data_same : forall sv s keys, same_state sv (do_get_data fx sv s keys).
Proof.
  intros sv s keys. unfold do_get_data.
  match goal with |- context [do_traversal ?cb ?t ?m ?r ?u ?g ?a] =>
    pose proof (do_traversal_inv _ cb t m r u g (fun acc => same_state sv (snd acc))
                  (fun acc n Ha _ _ => getdata_cb_same s sv acc n Ha) a (same_state_refl sv)) as H;
    destruct (do_traversal cb t m r u g a) as [reply sv1] end.
  cbn in H. destruct reply; [|exact H].
  eapply same_state_trans; [exact H|apply upd_session_same; intros; reflexivity].
Qed.

(* ------------------------------------------------------------------ SETDATA *)

Lemma set_tree_frame_inside : forall s dir sv t',
  foreign_view s dir t' = foreign_view s dir (sv_tree sv) -> frame s dir sv (set_tree sv t').
Proof. intros. repeat split. exact H. Qed.

Lemma frame_set_tree : forall s dir sv sv1 t',
  frame s dir sv sv1 -> foreign_view s dir t' = foreign_view s dir (sv_tree sv1) -> frame s dir sv (set_tree sv1 t').
Proof. intros s dir sv sv1 t' F H. eapply frame_trans; [exact F|]. now apply set_tree_frame_inside. Qed.

Lemma frame_edits : forall s dir,
  (forall sv p d, is_prefix dir p = true -> frame s dir sv (set_tree sv (set_data (sv_tree sv) p d))) /\
  (forall sv n, is_prefix dir (n_path n) = true -> frame s dir sv (set_tree sv (add_node (sv_tree sv) n))) /\
  (forall sv p, is_prefix dir p = true -> frame s dir sv (set_tree sv (remove_node (sv_tree sv) p))) /\
  (forall sv by_ p d old r, is_prefix dir p = true -> frame s dir sv (notify_changed sv by_ p d old r)).
Proof.
  intros s dir. split; [|split; [|split]]; intros.
  - apply set_tree_frame_inside. now apply fv_set_data_inside.
  - apply set_tree_frame_inside. now apply fv_add_inside.
  - apply set_tree_frame_inside. now apply fv_remove_inside.
  - apply same_state_frame, notify_changed_same.
Qed.

Lemma set_data_loop_frame : forall s dir cl sv by_ pp d dc dw q,
  is_prefix dir pp = true -> frame s dir sv (set_data_loop sv by_ pp cl d dc dw q).
Proof.
  intros s dir. destruct (frame_edits s dir) as [H1 [H2 [_ H4]]].
  now apply (set_data_loop_rule (frame s dir) (frame_refl s dir) (frame_trans s dir) dir).
Qed.

(* ------------------------------------------------------------------ removal *)

Lemma remove_subtree_frame : forall s dir sv by_ p notify,
  is_prefix dir p = true -> frame s dir sv (remove_subtree sv by_ p notify).
Proof.
  intros s dir. destruct (frame_edits s dir) as [_ [_ [H3 H4]]].
  now apply (remove_subtree_rule (frame s dir) (frame_refl s dir) (frame_trans s dir) dir).
Qed.

(* RemoveDataCallback collects nodes strictly below the directory the traversal starts at *)
Lemma remove_cb_collects_below : forall t m root uf gf,
  Forall (fun p => is_prefix root p = true) (do_traversal remove_cb t m root uf gf []).
Proof.
  intros. apply (do_traversal_inv _ remove_cb t m root uf gf (Forall (fun p => is_prefix root p = true))); [|constructor].
  intros acc n Ha _ [r [_ Hr]]. unfold remove_cb. destruct (Nat.ltb _ _); cbn; [|exact Ha].
  constructor; [|exact Ha]. rewrite Hr. apply is_prefix_app.
Qed.

Lemma do_remove_data_frame : forall s sv ss keys quiet, frame s (session_dir ss) sv (do_remove_data fx sv ss keys quiet).
Proof.
  intros s sv ss keys quiet. unfold do_remove_data.
  apply fold_chain; [apply frame_refl|apply frame_trans|].
  intros sv' q Hq. destruct (has_node _ _); [|apply frame_refl]. apply remove_subtree_frame.
  pose proof (remove_cb_collects_below (sv_tree sv) (m_of_list keys) (session_dir ss) true (fx_guard fx)) as H.
  rewrite Forall_forall in H. now apply H.
Qed.

(* ------------------------------------------------------------------ subscriptions *)

Lemma mark_nodes_fv : forall s dir t m delta, foreign_view s dir (mark_nodes fx t m s delta) = foreign_view s dir t.
Proof.
  intros s dir t m delta. unfold mark_nodes.
  apply (do_traversal_inv _ _ t m [] false (fx_guard fx) (fun acc => foreign_view s dir acc = foreign_view s dir t)); [|reflexivity].
  intros acc n Ha _ _. unfold continue_cb. cbn [fst]. now rewrite fv_adjust_subs.
Qed.

Lemma cqf_cb_same : forall s oldf newf sv n, same_state sv (cqf_cb fx s oldf newf sv n).
Proof.
  intros. unfold cqf_cb. destruct (Bool.eqb _ _); [apply same_state_refl|].
  destruct (get_session sv s); [|apply same_state_refl].
  destruct (_ && _); [apply same_state_refl|apply node_changed_aux_same].
Qed.

Lemma cqf_traversal_same : forall sv t oldf newf m,
  same_state sv (do_traversal (continue_cb (cqf_cb fx t oldf newf)) (sv_tree sv) m [] false (fx_guard fx) sv).
Proof.
  intros. apply (do_traversal_inv _ _ (sv_tree sv) m [] false (fx_guard fx) (fun acc => same_state sv acc)); [|apply same_state_refl].
  intros acc n Ha _ _. unfold continue_cb. cbn [fst]. eapply same_state_trans; [exact Ha|apply cqf_cb_same].
Qed.

Lemma subscribe_one_frame : forall sv s dir sf, frame s dir sv (subscribe_one fx sv s sf).
Proof.
  intros sv s dir sf. unfold subscribe_one. destruct (get_session sv s) as [ss|]; [|apply frame_refl].
  destruct (fix_path (fst sf)) as [|c fp] eqn:Efp; [apply frame_refl|].
  destruct (m_get _ _) as [e|].
  - eapply frame_trans; [|apply upd_session_frame; intros; reflexivity].
    destruct (snd sf), (e_flt e); try apply frame_refl; apply same_state_frame, cqf_traversal_same.
  - apply frame_set_tree; [apply upd_session_frame; intros; reflexivity|apply mark_nodes_fv].
Qed.

Lemma unsubscribe_one_frame : forall sv s dir sp, frame s dir sv (unsubscribe_one fx sv s sp).
Proof.
  intros sv s dir sp. unfold unsubscribe_one. destruct (get_session sv s) as [ss|]; [|apply frame_refl].
  destruct (m_remove _ _) as [m'|]; [|apply frame_refl].
  apply frame_set_tree; [apply upd_session_frame; intros; reflexivity|apply mark_nodes_fv].
Qed.

(* ------------------------------------------------------------------ the command handler of Refl/Server.v *)

Lemma set_data_item_frame : forall s dir flags sv (it : list name * payload), lives s dir sv ->
  frame s dir sv (match get_session sv s with
                  | Some ss' => match fst it with [] => sv | _ :: _ => set_data_node sv ss' (fst it) (snd it) flags end
                  | None => sv end).
Proof.
  intros s dir flags sv it Hl. destruct (get_session sv s) as [ss'|] eqn:Es; [|apply frame_refl].
  destruct (fst it); [apply frame_refl|]. unfold set_data_node. rewrite (Hl ss' Es). apply set_data_loop_frame, is_prefix_refl.
Qed.

Theorem handle_frame : forall c nest sv s dir, lives s dir sv -> frame s dir sv (handle fx nest sv s c).
Proof.
  induction c as [flags items|q keys|q subs|subs|n| |keys|l IHl] using cmd_ind'; intros nest sv s dir Hl; cbn [handle];
    (destruct (get_session sv s) as [ss|] eqn:Hs; [|apply frame_refl]).
  - apply frame_steps; [|exact Hl]. intros sv' it _. apply set_data_item_frame.
  - rewrite <- (Hl ss Hs). apply do_remove_data_frame.
  - assert (G : forall sv', frame s dir sv' (fold_left (fun sv'0 sf => subscribe_one fx sv'0 s sf) subs sv'))
      by (apply fold_chain; [apply frame_refl|apply frame_trans|intros; apply subscribe_one_frame]).
    destruct q; [apply G|]. destruct subs as [|sf subs']; [apply G|].
    eapply frame_trans; [apply G|]. apply same_state_frame.
    destruct (fx_push fx); [eapply same_state_trans; [apply push_all_same|]|]; apply do_get_data_same.
  - apply fold_chain; [apply frame_refl|apply frame_trans|intros; apply unsubscribe_one_frame].
  - apply upd_session_frame; intros; reflexivity.
  - apply upd_session_frame; intros; reflexivity.
  - apply same_state_frame, do_get_data_same.
  - destruct (Nat.ltb _ _); [|apply frame_refl]. rewrite batch_loop. apply frame_steps; [|exact Hl].
    intros sv' c Hc Hl'. eapply frame_trans; [apply (proj1 (Forall_forall _ _) IHl c Hc), Hl'|apply same_state_frame, push_all_same].
Qed.

(* ------------------------------------------------------------------ the dispatcher of Refl/IsoModel.v *)

(* the frame of session s in the extended state: the server core, everybody else's privilege bits, and -- when s holds no
   privilege at all -- s stays without privilege and nobody is marked for removal *)
Definition xframe (s : sid) (dir : path) (xs xs' : xserver) : Prop :=
  frame s dir (xs_sv xs) (xs_sv xs') /\
  priv_remove (xs_priv xs') s = priv_remove (xs_priv xs) s /\
  (unprivileged xs s -> unprivileged xs' s /\ xs_ducks xs' = xs_ducks xs).

Lemma xframe_refl : forall s dir xs, xframe s dir xs xs.
Proof. intros. split; [apply frame_refl|]. split; [reflexivity|]. intros H; now split. Qed.

Lemma xframe_trans : forall s dir a b c, xframe s dir a b -> xframe s dir b c -> xframe s dir a c.
Proof.
  intros s dir a b c [F1 [P1 U1]] [F2 [P2 U2]]. split; [eapply frame_trans; eassumption|]. split; [congruence|].
  intros Ha. destruct (U1 Ha) as [Ub Db]. destruct (U2 Ub) as [Uc Dc]. split; [exact Uc|congruence].
Qed.

Lemma xframe_with_sv : forall s dir xs sv', frame s dir (xs_sv xs) sv' -> xframe s dir xs (with_sv xs sv').
Proof. intros s dir xs sv' F. split; [exact F|]. split; [reflexivity|]. intros H; now split. Qed.

Lemma xframe_push : forall s dir xs, xframe s dir xs (with_sv xs (push_all (xs_sv xs))).
Proof. intros. apply xframe_with_sv, same_state_frame, push_all_same. Qed.

Lemma xframe_steps : forall (C : Type) (f : xserver -> C -> xserver) s dir l,
  (forall xs c, In c l -> lives s dir (xs_sv xs) -> xframe s dir xs (f xs c)) ->
  forall xs, lives s dir (xs_sv xs) -> xframe s dir xs (fold_left f l xs).
Proof.
  intros C f s dir l. apply (fold_steps _ _ (xframe s dir) (fun xs => lives s dir (xs_sv xs))); [apply xframe_refl|apply xframe_trans|].
  intros x y [F _]. now apply frame_lives with (dir := dir).
Qed.

Lemma unpriv_no_priv : forall xs s p, unprivileged xs s -> has_priv xs s p = false.
Proof. intros xs s p H. unfold has_priv. rewrite H. apply N.bits_0. Qed.

(* the dispatcher writes to the log, and a PR_COMMAND_KICK of a session holding the privilege marks sessions; nothing else *)
Lemma dispatch_sv : forall xs ss what keys sess, xs_sv (dispatch fx xs ss what keys sess) = xs_sv xs.
Proof.
  intros. unfold dispatch, bounce, log_to, with_ducks.
  repeat (match goal with |- context [if ?b then _ else _] => destruct b end); try reflexivity; destruct keys; reflexivity.
Qed.

Lemma dispatch_priv : forall xs ss what keys sess, xs_priv (dispatch fx xs ss what keys sess) = xs_priv xs.
Proof.
  intros. unfold dispatch, bounce, log_to, with_ducks.
  repeat (match goal with |- context [if ?b then _ else _] => destruct b end); try reflexivity; destruct keys; reflexivity.
Qed.

Lemma dispatch_ducks : forall xs ss what keys sess,
  xs_ducks (dispatch fx xs ss what keys sess) =
  if in_command_range what && N.eqb what c_PR_COMMAND_KICK && has_priv xs (s_id ss) c_PR_PRIVILEGE_KICK
  then match keys with
       | [] => xs_ducks xs
       | _ => do_traversal (kick_cb (xs_sv xs) (s_id ss)) (sv_tree (xs_sv xs)) (keys_matcher keys) [] true (fx_guard fx) (xs_ducks xs)
       end
  else xs_ducks xs.
Proof.
  intros. unfold dispatch, bounce, log_to, with_ducks.
  destruct (in_command_range what); cbn [andb]; [|destruct keys; reflexivity].
  destruct (N.eqb what c_PR_COMMAND_KICK); cbn [andb].
  - destruct (has_priv xs (s_id ss) c_PR_PRIVILEGE_KICK); [destruct keys; reflexivity|reflexivity].
  - repeat (match goal with |- context [if ?b then _ else _] => destruct b end); reflexivity.
Qed.

Lemma dispatch_xframe : forall xs ss what keys sess dir, xframe (s_id ss) dir xs (dispatch fx xs ss what keys sess).
Proof.
  intros xs ss what keys sess dir. unfold xframe, unprivileged. rewrite dispatch_sv, dispatch_priv, dispatch_ducks.
  split; [apply frame_refl|]. split; [reflexivity|]. intros U. split; [exact U|].
  now rewrite (unpriv_no_priv _ _ _ U), andb_false_r.
Qed.

Lemma priv_get_filter : forall (f : sid -> bool) l k,
  priv_get (filter (fun kb : sid * N => f (fst kb)) l) k = if f k then priv_get l k else 0%N.
Proof.
  intros f l k. induction l as [|[k0 b] r IH]; cbn [filter priv_get fst]; [now destruct (f k)|].
  destruct (f k0) eqn:F0; cbn [priv_get]; rewrite IH; (destruct (N.eqb k0 k) eqn:E; [|reflexivity]);
    apply N.eqb_eq in E; subst k0; now rewrite F0.
Qed.

Lemma priv_get_remove : forall l a k, priv_get (priv_remove l a) k = if N.eqb a k then 0%N else priv_get l k.
Proof.
  intros l a k. unfold priv_remove. rewrite (priv_get_filter (fun j => negb (N.eqb j a))), (N.eqb_sym k a). now destruct (N.eqb a k).
Qed.

Lemma priv_remove_idem : forall l s, priv_remove (priv_remove l s) s = priv_remove l s.
Proof. intros. unfold priv_remove. apply filter_absorb. auto. Qed.

Lemma xcmd_ind' : forall (P : xcmd -> Prop),
  (forall c, P (XBase c)) -> (forall f i, P (XSetData f i)) -> (forall q k, P (XRemoveData q k)) ->
  (forall w k, P (XCode w k)) -> (forall b, P (XSetPriv b)) -> P XRemovePriv -> (forall w k se, P (XMessage w k se)) ->
  (forall l, Forall P l -> P (XBatch l)) -> forall c, P c.
Proof.
  intros P H1 H2 H3 H4 H5 H6 H7 H8.
  refine (fix IH (c : xcmd) : P c :=
            match c with
            | XBase c => H1 c | XSetData f i => H2 f i | XRemoveData q k => H3 q k | XCode w k => H4 w k
            | XSetPriv b => H5 b | XRemovePriv => H6 | XMessage w k se => H7 w k se
            | XBatch l => H8 l ((fix go (l : list xcmd) : Forall P l :=
                                   match l with [] => Forall_nil P | c' :: r => Forall_cons c' (IH c') (go r) end) l)
            end).
Qed.

(* what a command leaves in place for the next one of the same batch *)
Lemma xhandle_none : forall c nest xs k, get_session (xs_sv xs) k = None -> xhandle fx nest xs k c = xs.
Proof. intros c nest xs k H. destruct c; cbn [xhandle]; rewrite H; reflexivity. Qed.

Theorem xhandle_xframe_at : forall c nest xs s dir, lives s dir (xs_sv xs) -> xframe s dir xs (xhandle fx nest xs s c).
Proof.
  induction c as [b|f i|q k|w k|b| |w k se|l IHl] using xcmd_ind'; intros nest xs s dir Hl; cbn [xhandle];
    (destruct (get_session (xs_sv xs) s) as [ss|] eqn:Hs; [|apply xframe_refl]).
  (* XBase, XSetData, XRemoveData: the handler of Refl/Server.v *)
  1-3: apply xframe_with_sv, handle_frame, Hl.
  - (* XCode *) rewrite <- (get_session_id _ _ _ Hs). apply dispatch_xframe.
  - (* XSetPriv *) apply xframe_refl.
  - (* XRemovePriv *) split; [apply frame_refl|]. split; [apply priv_remove_idem|]. intros U. split; [|reflexivity].
    unfold unprivileged. cbn. now rewrite priv_get_remove, N.eqb_refl.
  - (* XMessage *) rewrite <- (get_session_id _ _ _ Hs). apply dispatch_xframe.
  - (* XBatch *) destruct (Nat.ltb _ _); [|apply xframe_refl]. rewrite batch_loop. apply xframe_steps; [|exact Hl].
    intros xs' c Hc Hl'. eapply xframe_trans; [apply (proj1 (Forall_forall _ _) IHl c Hc), Hl'|apply xframe_push].
Qed.

Theorem xhandle_xframe : forall c nest xs s ss,
  get_session (xs_sv xs) s = Some ss -> xframe s (session_dir ss) xs (xhandle fx nest xs s c).
Proof. intros c nest xs s ss Hs. apply xhandle_xframe_at. now apply lives_here. Qed.

(* in every state, for every sender: the handler respects the frame of SOME session directory *)
Corollary xhandle_xframe_ex : forall c nest xs s, exists dir, length dir = 2 /\ xframe s dir xs (xhandle fx nest xs s c).
Proof.
  intros c nest xs s. destruct (get_session (xs_sv xs) s) as [ss|] eqn:Hs.
  - exists (session_dir ss). split; [reflexivity|now apply xhandle_xframe].
  - exists [0%N; 0%N]. split; [reflexivity|]. rewrite xhandle_none by exact Hs. apply xframe_refl.
Qed.

(* ------------------------------------------------------------------ one turn of the server, and sequences of commands *)

Lemma ducks_fold_detach : forall l xs,
  xs_ducks (fold_left (fun xs' d => xdetach fx xs' d) l xs) = filter (fun d => negb (sid_mem d l)) (xs_ducks xs).
Proof.
  induction l as [|a l IH]; intros xs; cbn [fold_left sid_mem].
  - symmetry. now apply filter_id.
  - rewrite IH. cbn [xs_ducks xdetach]. rewrite <- filter_andb. apply filter_ext. intros d.
    rewrite (N.eqb_sym a d), negb_orb. apply andb_comm.
Qed.

Lemma sid_mem_spec : forall k l, sid_mem k l = true <-> In k l.
Proof.
  intros k l. induction l as [|x l IH]; cbn [sid_mem In]; [split; [discriminate|tauto]|].
  rewrite orb_true_iff, N.eqb_eq, IH. tauto.
Qed.

Lemma clear_ducks_none : forall xs, xs_ducks (clear_ducks fx xs) = [].
Proof.
  intros xs. unfold clear_ducks. rewrite ducks_fold_detach.
  destruct (filter _ (xs_ducks xs)) as [|d r] eqn:E; [reflexivity|].
  assert (H : In d (d :: r)) by now left. rewrite <- E in H. apply filter_In in H as [H1 H2].
  apply sid_mem_spec in H1. rewrite H1 in H2. discriminate.
Qed.

(* ClearLameDucks detaches the marked sessions one after the other: what every departure keeps, it keeps *)
Lemma clear_ducks_keeps : forall (P : server -> Prop), (forall sv d, P sv -> P (detach fx sv d)) ->
  forall xs, P (xs_sv xs) -> P (xs_sv (clear_ducks fx xs)).
Proof.
  intros P H xs. unfold clear_ducks. generalize (xs_ducks xs). intros l. revert xs.
  induction l as [|d l IH]; intros xs Hx; cbn [fold_left]; [exact Hx|]. apply IH. now apply H.
Qed.

Lemma clear_ducks_nil : forall xs, xs_ducks xs = [] -> clear_ducks fx xs = xs.
Proof. intros xs H. unfold clear_ducks. now rewrite H. Qed.

(* in every state the server reaches, nobody is left marked for removal between two turns *)
Lemma xstep_no_ducks : forall xs ev, xs_ducks xs = [] -> xs_ducks (xstep fx xs ev) = [].
Proof.
  intros xs ev H. destruct ev as [s host nm bits|s|s c]; unfold xstep.
  - destruct (get_session _ _); exact H.
  - cbn. rewrite H. reflexivity.
  - destruct (get_session _ _); [|exact H]. cbv zeta. apply clear_ducks_none.
Qed.

Lemma xrun_no_ducks : forall evs xs, xs_ducks xs = [] -> xs_ducks (xrun fx evs xs) = [].
Proof. induction evs as [|ev evs IH]; intros xs H; cbn; [exact H|]. apply IH. now apply xstep_no_ducks. Qed.

Lemma xframe_unprivileged : forall s dir xs xs', xframe s dir xs xs' -> unprivileged xs s -> xs_ducks xs = [] ->
  foreign_view s dir (sv_tree (xs_sv xs')) = foreign_view s dir (sv_tree (xs_sv xs)) /\
  others_params s (xs_sv xs') = others_params s (xs_sv xs) /\
  idents (xs_sv xs') = idents (xs_sv xs) /\
  priv_remove (xs_priv xs') s = priv_remove (xs_priv xs) s /\
  unprivileged xs' s /\ xs_ducks xs' = [].
Proof. intros s dir xs xs' [[A [B C]] [P UD]] U D. destruct (UD U) as [U' D']. repeat split; congruence. Qed.

(* a whole turn of the server for a command of an unprivileged session s: handler, the update push after it, the removal of
   kicked sessions (there are none) *)
Lemma xstep_xframe : forall xs s c dir, lives s dir (xs_sv xs) -> unprivileged xs s -> xs_ducks xs = [] ->
  xframe s dir xs (xstep fx xs (XCmd s c)).
Proof.
  intros xs s c dir Hl U D. cbn [xstep]. destruct (get_session (xs_sv xs) s); [|apply xframe_refl]. cbv zeta.
  assert (F : xframe s dir xs (with_sv (xhandle fx 0 xs s c) (push_all (xs_sv (xhandle fx 0 xs s c)))))
    by (eapply xframe_trans; [now apply xhandle_xframe_at|apply xframe_push]).
  rewrite clear_ducks_nil; [exact F|]. destruct F as [_ [_ UD]]. destruct (UD U) as [_ D']. congruence.
Qed.

(* FRAME, any sequence: "no sequence of commands from an unprivileged session ..." *)
Theorem frame_own_subtree : forall cs xs s ss,
  get_session (xs_sv xs) s = Some ss -> unprivileged xs s -> xs_ducks xs = [] ->
  let xs' := xrun fx (map (XCmd s) cs) xs in
  foreign_view s (session_dir ss) (sv_tree (xs_sv xs')) = foreign_view s (session_dir ss) (sv_tree (xs_sv xs)) /\
  others_params s (xs_sv xs') = others_params s (xs_sv xs) /\
  idents (xs_sv xs') = idents (xs_sv xs) /\
  priv_remove (xs_priv xs') s = priv_remove (xs_priv xs) s /\
  unprivileged xs' s /\ xs_ducks xs' = [].
Proof.
  intros cs xs s ss Hs U D xs'. apply xframe_unprivileged; [|exact U|exact D]. unfold xs', xrun.
  apply (fold_steps _ _ (xframe s (session_dir ss))
           (fun x => lives s (session_dir ss) (xs_sv x) /\ unprivileged x s /\ xs_ducks x = []));
    [apply xframe_refl|apply xframe_trans| | |].
  - intros x y [F [_ UD]] [Hl [Ux Dx]]. destruct (UD Ux) as [Uy Dy]. split; [now apply (frame_lives _ _ _ _ _ F)|]. split; congruence.
  - intros x ev Hev [Hl [Ux Dx]]. apply in_map_iff in Hev as [c [<- _]]. now apply xstep_xframe.
  - split; [now apply lives_here|now split].
Qed.

End Frame.
