(* Refl/TravBase.v -- the premises of the C05 theorems about trees and PathMatcher tables ([tree_wf], [matcher_wf]: weaker
   than wf_tree / wf_groups of the server invariant) and what the traversal proofs need of them; [pre_matches]: a
   pattern matches a path as far as the path goes. *)
From Coq Require Import List NArith ZArith Bool Arith Lia.
From Muscle Require Import Refl.Base Refl.BaseProofs Refl.Tree Refl.TreeProofs Refl.Matcher.
Import ListNotations.

(* what the routing files take from here by name *)
Lemma path_eqb_eq : forall p q : path, path_eqb p q = true <-> p = q.
Proof. exact BaseProofs.path_eqb_eq. Qed.

Lemma path_eqb_refl : forall p : path, path_eqb p p = true.
Proof. exact BaseProofs.path_eqb_refl. Qed.

Lemma find_node_some : forall (t : tree) (p : path) (n : node),
  find_node t p = Some n -> In n t /\ n_path n = p.
Proof. exact TreeProofs.find_node_some. Qed.

Lemma find_node_none : forall (t : tree) (p : path),
  find_node t p = None -> forall n, In n t -> n_path n <> p.
Proof. intros t p. apply TreeProofs.find_node_none. Qed.

(* node paths are distinct and non-empty, and every node but the ones directly under the root has its parent *)
Definition tree_wf (t : tree) : Prop :=
  NoDup (map n_path t) /\
  (forall n, In n t -> n_path n <> []) /\
  (forall n p k, In n t -> n_path n = p ++ [k] -> p = [] \/ exists pn, In pn t /\ n_path pn = p).

(* the tree invariant of the server proofs gives it *)
Lemma wf_tree_tree_wf : forall t, wf_tree t -> tree_wf t.
Proof.
  intros t [Hnd [Hne Hpre]]. split; [exact Hnd|split; [exact Hne|]].
  intros n p k Hn Hp. destruct p as [|a p]; [now left|right]. apply (Hpre n (a :: p) [k] Hn Hp). discriminate.
Qed.

(* every ancestor of a node below x exists *)
Lemma ancestor_exists : forall (t : tree), tree_wf t ->
  forall (r : path) (n : node) (x : path) (k : name),
    In n t -> n_path n = x ++ k :: r -> exists c, In c t /\ n_path c = x ++ [k].
Proof.
  intros t [ND [NE PC]] r. induction r as [|z r IH] using rev_ind; intros n x k Hin E.
  - exists n. now split.
  - assert (E' : n_path n = (x ++ k :: r) ++ [z]) by (rewrite E, <- app_assoc; reflexivity).
    destruct (PC n _ _ Hin E') as [Hnil | [pn [Hpn Epn]]].
    + destruct x; discriminate.
    + now apply (IH pn x k).
Qed.

(* ------------------------------------------------------------------ patterns *)

Section Pat.
Context {M : MatchOps}.

(* the first |p| clauses of pt match p name by name (pt is at least as long as p) *)
Fixpoint pre_matches (pt : pat) (p : path) {struct p} : bool :=
  match p, pt with
  | [], _ => true
  | k :: p', c :: pt' => cmatch c k && pre_matches pt' p'
  | _ :: _, [] => false
  end.

Lemma pre_matches_length : forall (pt : pat) (p : path), pre_matches pt p = true -> length p <= length pt.
Proof.
  induction pt as [|c pt IH]; intros [|k p] H; cbn in *; try lia; try discriminate.
  apply andb_true_iff in H. destruct H as [_ H]. apply IH in H. lia.
Qed.

Lemma pre_matches_snoc : forall (pt : pat) (p : path) (k : name),
  pre_matches pt (p ++ [k]) = pre_matches pt p && match nth_error pt (length p) with Some c => cmatch c k | None => false end.
Proof.
  induction pt as [|c pt IH]; intros [|a p] k; cbn.
  - reflexivity.
  - reflexivity.
  - now rewrite andb_true_r.
  - rewrite IH. now rewrite andb_assoc.
Qed.

Lemma pat_matches_pre : forall (pt : pat) (p : path),
  pat_matches pt p = pre_matches pt p && Nat.eqb (length pt) (length p).
Proof.
  induction pt as [|c pt IH]; intros [|a p]; cbn; try reflexivity.
  rewrite IH. now rewrite andb_assoc.
Qed.

Lemma pat_matches_snoc : forall (pt : pat) (p : path) (k : name),
  pat_matches pt (p ++ [k]) = true ->
  pre_matches pt p = true /\ length pt = S (length p) /\ exists c, nth_error pt (length p) = Some c /\ cmatch c k = true.
Proof.
  intros pt p k H. rewrite pat_matches_pre in H. apply andb_true_iff in H. destruct H as [H L].
  rewrite pre_matches_snoc in H. apply andb_true_iff in H. destruct H as [H1 H2].
  apply Nat.eqb_eq in L. rewrite app_length in L. cbn in L.
  split; [assumption|]. split; [lia|].
  destruct (nth_error pt (length p)) as [c|]; [|discriminate]. now exists c.
Qed.

Lemma pre_matches_app : forall (pt : pat) (p q : path), pre_matches pt (p ++ q) = true -> pre_matches pt p = true.
Proof.
  induction pt as [|c pt IH]; intros [|a p] q H; cbn in *; try reflexivity; try discriminate.
  apply andb_true_iff in H. destruct H as [H1 H2]. rewrite H1. cbn. now apply (IH p q).
Qed.

Lemma pre_matches_nth : forall (pt : pat) (p q : path) (k : name),
  pre_matches pt (p ++ k :: q) = true -> exists c, nth_error pt (length p) = Some c /\ cmatch c k = true.
Proof.
  induction pt as [|c pt IH]; intros [|a p] q k H; cbn in *; try discriminate.
  - apply andb_true_iff in H. destruct H as [H1 _]. now exists c.
  - apply andb_true_iff in H. destruct H as [_ H2]. now apply (IH p q k).
Qed.

(* ------------------------------------------------------------------ PathMatcher tables *)

(* group keys are distinct and every entry sits in the group of its clause count *)
Definition matcher_wf (m : matcher) : Prop :=
  NoDup (map fst (m_groups m)) /\
  (forall d es e, In (d, es) (m_groups m) -> In e es -> length (e_pat e) = d).

Lemma group_get_in : forall (gs : list group) (d : nat) (e : entry),
  In e (group_get gs d) -> exists es, In (d, es) gs /\ In e es.
Proof.
  induction gs as [|[k es] gs IH]; intros d e H; cbn in H; [destruct H|].
  destruct (Nat.eqb k d) eqn:E.
  - apply Nat.eqb_eq in E. subst. exists es. split; [now left | assumption].
  - destruct (IH d e H) as [es' [H1 H2]]. exists es'. split; [now right | assumption].
Qed.

Lemma group_get_intro : forall (gs : list group) (d : nat) (es : list entry) (e : entry),
  NoDup (map fst gs) -> In (d, es) gs -> In e es -> In e (group_get gs d).
Proof.
  induction gs as [|[k es0] gs IH]; intros d es e ND Hin He; [destruct Hin|].
  cbn in ND. inversion ND as [|? ? Hnot ND']; subst. cbn.
  destruct Hin as [Hin|Hin].
  - inversion Hin; subst. now rewrite Nat.eqb_refl.
  - destruct (Nat.eqb k d) eqn:E.
    + apply Nat.eqb_eq in E. subst. exfalso. apply Hnot. apply in_map_iff. exists (d, es). now split.
    + now apply (IH d es e).
Qed.

Lemma all_entries_in : forall (m : matcher) (e : entry),
  In e (all_entries m) <-> exists d es, In (d, es) (m_groups m) /\ In e es.
Proof.
  intros m e. unfold all_entries. rewrite in_flat_map. split.
  - intros [[d es] [H1 H2]]. now exists d, es.
  - intros [d [es [H1 H2]]]. now exists (d, es).
Qed.

Lemma group_get_spec : forall (m : matcher) (d : nat) (e : entry), matcher_wf m ->
  (In e (group_get (m_groups m) d) <-> In e (all_entries m) /\ length (e_pat e) = d).
Proof.
  intros m d e [ND LEN]. split.
  - intros H. apply group_get_in in H. destruct H as [es [H1 H2]]. split.
    + apply all_entries_in. now exists d, es.
    + now apply (LEN d es e).
  - intros [H L]. apply all_entries_in in H. destruct H as [d' [es [H1 H2]]].
    assert (Ed : d' = d) by (rewrite <- L; symmetry; now apply (LEN d' es e)). subst d'.
    now apply (group_get_intro _ d es e).
Qed.

(* PathMatcher::MatchesPath in terms of the entries *)
Lemma matches_path_spec : forall (m : matcher) (p : path) (d : option payload), matcher_wf m ->
  (matches_path m p d = true <->
   exists e, In e (all_entries m) /\ pat_matches (e_pat e) p = true /\ filter_ok (e_flt e) d = true).
Proof.
  intros m p d WF. unfold matches_path. rewrite existsb_exists. split.
  - intros [e [H1 H2]]. apply andb_true_iff in H2. destruct H2 as [H2 H3].
    apply (group_get_spec m _ e WF) in H1. exists e. tauto.
  - intros [e [H1 [H2 H3]]]. exists e. split.
    + apply (group_get_spec m _ e WF). split; [assumption | now apply pat_matches_length].
    + now rewrite H2, H3.
Qed.

(* NodePathMatcher::MatchesNode at a node below the root of the traversal is MatchesPath on the relative path *)
Lemma matches_node_rel : forall (m : matcher) (root rp : path) (d : option payload),
  matches_node m (root ++ rp) d (length root) = matches_path m rp d.
Proof.
  intros m root rp d. unfold matches_node, matches_path, path_matches.
  rewrite app_length.
  replace (Nat.ltb (length root + length rp) (length root)) with false by (symmetry; apply Nat.ltb_ge; lia).
  replace (length root + length rp - length root) with (length rp) by lia.
  rewrite skipn_app, skipn_all, Nat.sub_diag. cbn. reflexivity.
Qed.

Lemma active_spec : forall (m : matcher) (rel : nat) (e : entry), matcher_wf m ->
  (In e (flat_map (fun g : group => if Nat.ltb rel (fst g) then snd g else []) (m_groups m)) <->
   In e (all_entries m) /\ rel < length (e_pat e)).
Proof.
  intros m rel e [ND LEN]. rewrite in_flat_map. split.
  - intros [[d es] [H1 H2]]. cbn [fst snd] in H2. destruct (Nat.ltb rel d) eqn:E; [|destruct H2].
    apply Nat.ltb_lt in E. split.
    + apply all_entries_in. now exists d, es.
    + now rewrite (LEN d es e H1 H2).
  - intros [H L]. apply all_entries_in in H. destruct H as [d [es [H1 H2]]].
    exists (d, es). split; [assumption|]. cbn [fst snd].
    rewrite <- (LEN d es e H1 H2). apply Nat.ltb_lt in L. now rewrite L.
Qed.

End Pat.
