(* Refl/MatcherProofs.v -- well-formedness of a PathMatcher table and what the table operations do to
   the flat list of entries. *)
From Coq Require Import List NArith ZArith Bool Arith Lia.
From Muscle Require Import Refl.Base Refl.BaseProofs Refl.Matcher Refl.Traverse Refl.TravBase.
Import ListNotations.

Section MatcherProofs.
Context {M : MatchOps} {L : MatchLaws M}.

Definition wf_group (g : group) : Prop :=
  snd g <> [] /\ 1 <= fst g /\ (forall e, In e (snd g) -> length (e_pat e) = fst g) /\ NoDup (map e_pat (snd g)).

Definition wf_groups (gs : list group) : Prop :=
  NoDup (map fst gs) /\ forall g, In g gs -> wf_group g.

Definition count_filters (gs : list group) : nat := length (filter has_filter (flat_map snd gs)).

Definition wf_matcher (m : matcher) : Prop :=
  wf_groups (m_groups m) /\ m_nfilters m = N.of_nat (count_filters (m_groups m)).

Lemma wf_empty : wf_matcher empty_matcher.
Proof. split; [split; [constructor|intros g []]|reflexivity]. Qed.

(* ------------------------------------------------------------------ lookups *)

(* what the lookups need of a table is the weaker [matcher_wf] of Refl/TravBase.v *)
Lemma wf_groups_matcher_wf : forall m, wf_groups (m_groups m) -> matcher_wf m.
Proof.
  intros m [Hnd Hwf]. split; [exact Hnd|].
  intros d es e Hg He. destruct (Hwf (d, es) Hg) as [_ [_ [Hl _]]]. now apply Hl.
Qed.

Lemma group_get_in : forall gs d e, In e (group_get gs d) -> exists g, In g gs /\ fst g = d /\ In e (snd g).
Proof. intros gs d e H. apply TravBase.group_get_in in H as [es [H1 H2]]. now exists (d, es). Qed.

Lemma in_all_entries : forall m e, In e (all_entries m) <-> exists g, In g (m_groups m) /\ In e (snd g).
Proof. intros m e. unfold all_entries. now rewrite in_flat_map. Qed.

(* an entry of the matcher is found in the group of its clause count *)
Lemma entry_in_its_group : forall m e, wf_groups (m_groups m) ->
  In e (all_entries m) <-> In e (group_get (m_groups m) (length (e_pat e))).
Proof. intros m e Hw. rewrite (group_get_spec m _ e (wf_groups_matcher_wf m Hw)). tauto. Qed.

Lemma group_get_length : forall m d e, wf_groups (m_groups m) -> In e (group_get (m_groups m) d) -> length (e_pat e) = d.
Proof. intros m d e Hw H. now apply (group_get_spec m d e (wf_groups_matcher_wf m Hw)) in H. Qed.

Lemma active_spec : forall m rel e, wf_groups (m_groups m) ->
  In e (active m rel) <-> In e (all_entries m) /\ rel < length (e_pat e).
Proof. intros m rel e Hw. exact (TravBase.active_spec m rel e (wf_groups_matcher_wf m Hw)). Qed.

(* MatchesNode = some entry of the whole table matches (its group is implied by the clause count) *)
Lemma matches_node_spec : forall m p d rd, wf_groups (m_groups m) -> rd <= length p ->
  matches_node m p d rd = true <-> exists e, In e (all_entries m) /\ path_matches e p d rd = true.
Proof.
  intros m p d rd Hwf Hrd. unfold matches_node.
  assert (Nat.ltb (length p) rd = false) as -> by (apply Nat.ltb_ge; lia).
  rewrite existsb_exists. split; intros [e [He Hm]]; exists e; split; auto.
  - apply group_get_in in He as [g [Hg [_ He]]]. apply in_all_entries. eauto.
  - assert (Hl : length (e_pat e) = length p - rd).
    { unfold path_matches in Hm. apply andb_true_iff in Hm as [Hm _].
      apply pat_matches_length in Hm. rewrite skipn_length in Hm. exact Hm. }
    rewrite <- Hl. now apply entry_in_its_group.
Qed.

Lemma matches_path_spec : forall m p d, wf_groups (m_groups m) ->
  matches_path m p d = true <-> exists e, In e (all_entries m) /\ pat_matches (e_pat e) p = true /\ filter_ok (e_flt e) d = true.
Proof. intros m p d Hw. exact (TravBase.matches_path_spec m p d (wf_groups_matcher_wf m Hw)). Qed.

Lemma matches_node_path : forall m p d, wf_groups (m_groups m) -> matches_node m p d 0 = matches_path m p d.
Proof.
  intros m p d Hwf. unfold matches_node, matches_path, path_matches. cbn. now rewrite Nat.sub_0_r.
Qed.

Lemma entries_get_some : forall es p e, entries_get es p = Some e -> In e es /\ e_pat e = p.
Proof. exact (kfind_some entry pat e_pat pat_eqb pat_eqb_eq). Qed.

Lemma entries_get_none : forall es p, entries_get es p = None <-> forall e, In e es -> e_pat e <> p.
Proof. exact (kfind_none entry pat e_pat pat_eqb pat_eqb_eq). Qed.

Lemma m_get_some : forall m p e, m_get m p = Some e -> In e (all_entries m) /\ e_pat e = p.
Proof.
  intros m p e H. unfold m_get in H. apply entries_get_some in H as [H1 H2]. split; auto.
  apply group_get_in in H1 as [g [Hg [_ He]]]. apply in_all_entries. eauto.
Qed.

Lemma m_get_none : forall m p, wf_groups (m_groups m) -> m_get m p = None -> forall e, In e (all_entries m) -> e_pat e <> p.
Proof.
  intros m p Hw H e He Hp. unfold m_get in H. rewrite entries_get_none in H.
  apply (H e); auto. rewrite <- Hp. now apply entry_in_its_group.
Qed.

(* the paths of a table are pairwise distinct *)
Lemma all_pats_nodup : forall m, wf_groups (m_groups m) -> NoDup (map e_pat (all_entries m)).
Proof.
  intros m [Hnd Hwf]. unfold all_entries. induction (m_groups m) as [|[k es] gs IH]; cbn; [constructor|].
  cbn in Hnd. inversion Hnd as [|? ? Hk Hnd']; subst.
  rewrite map_app. apply NoDup_app_intro.
  - destruct (Hwf (k, es) (or_introl eq_refl)) as [_ [_ [_ H]]]. exact H.
  - apply IH; auto. intros g Hg. apply Hwf. now right.
  - intros p Hp1 Hp2. apply in_map_iff in Hp1 as [a [Ha1 Ha2]]. apply in_map_iff in Hp2 as [b [Hb1 Hb2]].
    apply in_flat_map in Hb2 as [g [Hg Hb2]].
    destruct (Hwf (k, es) (or_introl eq_refl)) as [_ [_ [Hl1 _]]].
    destruct (Hwf g (or_intror Hg)) as [_ [_ [Hl2 _]]]. cbn in Hl1.
    apply Hk. replace k with (fst g); [now apply in_map|].
    rewrite <- (Hl2 b Hb2), <- (Hl1 a Ha2). congruence.
Qed.

(* two entries with the same path are the same entry *)
Lemma entries_unique : forall m a b, wf_groups (m_groups m) -> In a (all_entries m) -> In b (all_entries m) ->
  e_pat a = e_pat b -> a = b.
Proof. intros m a b Hw. apply NoDup_map_inj. now apply all_pats_nodup. Qed.

(* more than one matching entry: one of them has a path other than p *)
Lemma other_match : forall m (f : entry -> bool) p, wf_groups (m_groups m) ->
  ~ length (filter f (all_entries m)) <= 1 ->
  exists x, In x (all_entries m) /\ f x = true /\ e_pat x <> p.
Proof.
  intros m f p Hw Hlen. pose proof (all_pats_nodup m Hw) as Hnd.
  revert Hnd Hlen. generalize (all_entries m). intros l Hnd Hlen.
  assert (H2 : exists x y, In x l /\ In y l /\ f x = true /\ f y = true /\ e_pat x <> e_pat y).
  { induction l as [|a l IH]; [cbn in Hlen; lia|].
    cbn in Hnd. inversion Hnd as [|? ? Ha Hnd']; subst. cbn [filter] in Hlen.
    destruct (f a) eqn:Ea.
    - cbn [length] in Hlen.
      destruct (filter f l) as [|b r] eqn:Ef; [cbn in Hlen; lia|].
      assert (Hb : In b (filter f l)) by (rewrite Ef; now left). apply filter_In in Hb as [Hb1 Hb2].
      exists a, b. split; [now left|split; [now right|split; [auto|split; [auto|]]]].
      intros E. apply Ha. rewrite E. now apply in_map.
    - destruct (IH Hnd' Hlen) as [x [y [H1 [H3 H4]]]]. exists x, y. split; [now right|split; [now right|auto]]. }
  destruct H2 as [x [y [Hx [Hy [Hfx [Hfy Hne]]]]]].
  destruct (pat_eqb (e_pat x) p) eqn:E.
  - apply pat_eqb_eq in E. exists y. split; [auto|split; [auto|congruence]].
  - apply pat_eqb_neq in E. exists x. auto.
Qed.

(* number of entries whose path matches p (filters ignored) *)
Definition count_matching (m : matcher) (p : path) : nat :=
  length (filter (fun e => pat_matches (e_pat e) p) (all_entries m)).

(* the test GetMatchCount makes of one entry, given the node's payload: path and filter accept *)
Definition ematch (e : entry) (q : path) (v : payload) : bool :=
  pat_matches (e_pat e) q && filter_ok (e_flt e) (Some v).

Lemma filter_none : forall (A : Type) (f : A -> bool) l, (forall x, In x l -> f x = false) -> filter f l = [].
Proof.
  induction l as [|x l IH]; intros H; cbn; auto.
  rewrite (H x (or_introl eq_refl)). apply IH. intros y Hy. apply H. now right.
Qed.

Lemma count_in_groups_gen : forall (R : entry -> bool) gs p, NoDup (map fst gs) -> (forall g, In g gs -> wf_group g) ->
  length (filter (fun e => pat_matches (e_pat e) p && R e) (flat_map snd gs))
  = length (filter (fun e => pat_matches (e_pat e) p && R e) (group_get gs (length p))).
Proof.
  intros R. induction gs as [|[k es] gs IH]; intros p Hnd Hwf; cbn; auto.
  inversion Hnd as [|? ? Hk Hnd']; subst.
  rewrite filter_app, app_length.
  destruct (Nat.eqb k (length p)) eqn:E.
  - apply Nat.eqb_eq in E.
    rewrite (filter_none _ _ (flat_map snd gs)); [cbn; lia|].
    intros e He. apply in_flat_map in He as [g [Hg He]].
    destruct (Hwf g (or_intror Hg)) as [_ [_ [Hlen _]]].
    destruct (pat_matches (e_pat e) p) eqn:Em; auto. apply pat_matches_length in Em.
    exfalso. apply Hk. rewrite (Hlen e He) in Em. subst k. rewrite <- Em. now apply in_map.
  - rewrite (filter_none _ _ es).
    + cbn. apply IH; auto. intros g Hg. apply Hwf. now right.
    + intros e He. destruct (Hwf (k, es) (or_introl eq_refl)) as [_ [_ [Hlen _]]].
      destruct (pat_matches (e_pat e) p) eqn:Em; auto. apply pat_matches_length in Em.
      cbn in Hlen. rewrite (Hlen e He) in Em. apply Nat.eqb_neq in E. contradiction.
Qed.

Lemma match_count_gen : forall m p d, wf_groups (m_groups m) ->
  match_count m p d 0
  = N.of_nat (length (filter (fun e => pat_matches (e_pat e) p && filter_ok (e_flt e) d) (all_entries m))).
Proof.
  intros m p d [Hnd Hwf]. unfold match_count, all_entries. cbn [Nat.ltb Nat.leb].
  rewrite Nat.sub_0_r. f_equal.
  rewrite (count_in_groups_gen (fun e => filter_ok (e_flt e) d)); auto.
Qed.

Lemma match_count_data_spec : forall m p v, wf_groups (m_groups m) ->
  match_count m p (Some v) 0 = N.of_nat (length (filter (fun e => ematch e p v) (all_entries m))).
Proof. intros m p v. apply match_count_gen. Qed.

(* without a payload every filter accepts *)
Lemma match_count_spec : forall m p, wf_groups (m_groups m) ->
  match_count m p None 0 = N.of_nat (count_matching m p).
Proof.
  intros m p Hw. rewrite match_count_gen by exact Hw. unfold count_matching. do 2 f_equal. apply filter_ext.
  intros e. unfold filter_ok. destruct (e_flt e); apply andb_true_r.
Qed.

Lemma matches_path_ematch : forall m q v, wf_groups (m_groups m) ->
  matches_path m q (Some v) = true <-> exists e, In e (all_entries m) /\ ematch e q v = true.
Proof.
  intros m q v Hw. rewrite matches_path_spec by auto. unfold ematch. split.
  - intros [e [H1 [H2 H3]]]. exists e. split; auto. now rewrite H2, H3.
  - intros [e [H1 H2]]. apply andb_true_iff in H2 as [H2 H3]. eauto.
Qed.

(* ------------------------------------------------------------------ the table operations *)

Lemma entries_put_in : forall es e x, In x (entries_put es e) -> x = e \/ In x es.
Proof.
  induction es as [|y es IH]; intros e x H; cbn in H.
  - destruct H as [H|[]]; auto.
  - destruct (pat_eqb (e_pat y) (e_pat e)).
    + destruct H as [H|H]; [left; auto|right; now right].
    + destruct H as [H|H]; [right; now left|]. apply IH in H as [H|H]; [now left|right; now right].
Qed.

Lemma entries_put_pats : forall es e p, In p (map e_pat (entries_put es e)) <-> p = e_pat e \/ In p (map e_pat es).
Proof.
  induction es as [|y es IH]; intros e p; cbn.
  - intuition.
  - destruct (pat_eqb (e_pat y) (e_pat e)) eqn:E; cbn.
    + apply pat_eqb_eq in E. rewrite E. intuition.
    + rewrite IH. intuition.
Qed.

Lemma entries_put_nodup : forall es e, NoDup (map e_pat es) -> NoDup (map e_pat (entries_put es e)).
Proof.
  induction es as [|y es IH]; intros e H; cbn.
  - repeat constructor. intros [].
  - cbn in H. inversion H as [|? ? Hy H']; subst.
    destruct (pat_eqb (e_pat y) (e_pat e)) eqn:E; cbn.
    + apply pat_eqb_eq in E. rewrite <- E. now constructor.
    + constructor; auto. rewrite entries_put_pats. intros [H1|H1]; [|contradiction].
      apply pat_eqb_neq in E. congruence.
Qed.

Lemma groups_put_keys : forall gs d e k, In k (map fst (groups_put gs d e)) <-> k = d \/ In k (map fst gs).
Proof.
  induction gs as [|[k0 es] gs IH]; intros d e k; cbn.
  - intuition.
  - destruct (Nat.eqb k0 d) eqn:E; cbn.
    + apply Nat.eqb_eq in E. subst. intuition.
    + rewrite IH. intuition.
Qed.

Lemma groups_put_nodup : forall gs d e, NoDup (map fst gs) -> NoDup (map fst (groups_put gs d e)).
Proof.
  induction gs as [|[k es] gs IH]; intros d e H; cbn; [repeat constructor; intros []|].
  cbn in H. inversion H as [|? ? Hk H']; subst.
  destruct (Nat.eqb k d) eqn:E; cbn; constructor; auto.
  rewrite groups_put_keys. intros [H1|H1]; [|contradiction]. apply Nat.eqb_neq in E. congruence.
Qed.

Lemma groups_put_all : forall (G : group -> Prop) gs d e,
  (forall g, In g gs -> G g) -> G (d, [e]) -> (forall es, G (d, es) -> G (d, entries_put es e)) ->
  forall g, In g (groups_put gs d e) -> G g.
Proof.
  intros G. induction gs as [|[k es] gs IH]; intros d e Hgs H1 Hput g Hg; cbn in Hg.
  - destruct Hg as [Hg|[]]. now subst.
  - destruct (Nat.eqb k d) eqn:E.
    + apply Nat.eqb_eq in E. subst k. destruct Hg as [Hg|Hg]; [subst g; apply Hput|]; apply Hgs; [now left|now right].
    + destruct Hg as [Hg|Hg]; [apply Hgs; now left|]. apply (IH d e); auto. intros g' Hg'. apply Hgs. now right.
Qed.

Lemma groups_put_wf : forall gs d e, wf_groups gs -> length (e_pat e) = d -> 1 <= d -> wf_groups (groups_put gs d e).
Proof.
  intros gs d e [Hnd Hwf] Hl Hd. split; [now apply groups_put_nodup|].
  apply groups_put_all; [exact Hwf| |].
  - split; [discriminate|split; [exact Hd|split]]; cbn; [intros x [Hx|[]]; now subst|repeat constructor; intros []].
  - intros es [G1 [G2 [G3 G4]]]. cbn in *. split; [|split; [exact G2|split]]; cbn.
    + destruct es; cbn; [discriminate|]. destruct (pat_eqb _ _); discriminate.
    + intros x Hx. apply entries_put_in in Hx as [Hx|Hx]; [now subst|now apply G3].
    + now apply entries_put_nodup.
Qed.

Lemma entries_remove_in : forall es p x, In x (entries_remove es p) -> In x es.
Proof.
  induction es as [|y es IH]; intros p x H; cbn in H; [contradiction|].
  destruct (pat_eqb (e_pat y) p); [now right|].
  destruct H as [H|H]; [now left|right; eauto].
Qed.

Lemma entries_remove_nodup : forall es p, NoDup (map e_pat es) -> NoDup (map e_pat (entries_remove es p)).
Proof.
  induction es as [|y es IH]; intros p H; cbn; auto.
  cbn in H. inversion H as [|? ? Hy H']; subst.
  destruct (pat_eqb (e_pat y) p); auto. cbn. constructor; auto.
  intros Hin. apply Hy. apply in_map_iff in Hin as [x [Hx1 Hx2]]. apply entries_remove_in in Hx2.
  rewrite <- Hx1. now apply in_map.
Qed.

Lemma groups_remove_keys : forall gs d p k, In k (map fst (groups_remove gs d p)) -> In k (map fst gs).
Proof.
  induction gs as [|[k0 es] gs IH]; intros d p k H; cbn in *; auto.
  destruct (Nat.eqb k0 d).
  - destruct (entries_remove es p); cbn in *; intuition.
  - cbn in H. destruct H as [H|H]; [now left|right; eauto].
Qed.

Lemma groups_remove_wf : forall gs d p, wf_groups gs -> wf_groups (groups_remove gs d p).
Proof.
  induction gs as [|[k0 es] gs IH]; intros d p [Hnd Hwf]; cbn; [split; auto|].
  cbn in Hnd. inversion Hnd as [|? ? Hk Hnd']; subst.
  assert (Hgs : wf_groups gs) by (split; auto; intros g Hg; apply Hwf; now right).
  destruct (Hwf (k0, es) (or_introl eq_refl)) as [G1 [G2 [G3 G4]]]. cbn in *.
  destruct (Nat.eqb k0 d).
  - destruct (entries_remove es p) as [|y ys] eqn:Er; auto.
    split; [cbn; now constructor|].
    intros g [Hg|Hg]; [|apply Hwf; now right]. subst g.
    split; [discriminate|split; [auto|split]]; cbn.
    + intros x Hx. apply G3. apply (entries_remove_in es p). now rewrite Er.
    + pose proof (entries_remove_nodup es p G4) as H. now rewrite Er in H.
  - destruct (IH d p Hgs) as [Hnd2 Hwf2]. split.
    + cbn. constructor; auto. intros H. apply Hk. now apply groups_remove_keys in H.
    + intros g [Hg|Hg]; [subst g; apply (Hwf (k0, es)); now left|now apply Hwf2].
Qed.

Lemma wf_put : forall m p f, wf_groups (m_groups m) -> wf_groups (m_groups (m_put m p f)).
Proof.
  intros m p f H. unfold m_put. destruct p as [|c p]; auto. cbn [m_groups].
  apply groups_put_wf; auto. cbn. lia.
Qed.

Lemma wf_set_filter : forall m p f, wf_groups (m_groups m) -> wf_groups (m_groups (m_set_filter m p f)).
Proof.
  intros m p f H. unfold m_set_filter. destruct (m_get m p) as [e|] eqn:E; auto. cbn [m_groups].
  unfold m_get in E. apply entries_get_some in E as [E1 E2].
  apply group_get_in in E1 as [g [Hg [Hd He]]]. destruct H as [Hnd Hwf]. destruct (Hwf g Hg) as [_ [G2 [G3 _]]].
  apply groups_put_wf; [split; auto|reflexivity|]. cbn. rewrite <- E2, (G3 e He). exact G2.
Qed.

Lemma wf_remove : forall m p m', wf_groups (m_groups m) -> m_remove m p = Some m' -> wf_groups (m_groups m').
Proof.
  intros m p m' H Hr. unfold m_remove in Hr. destruct (m_get m p); [|discriminate]. inversion Hr; subst.
  cbn [m_groups]. now apply groups_remove_wf.
Qed.

(* the one-pattern matcher that marks / unmarks the nodes of one subscription *)
Lemma single_wf : forall p, p <> [] -> wf_groups (m_groups (m_put empty_matcher p None)).
Proof. intros p Hp. apply wf_put. apply (proj1 wf_empty). Qed.

Lemma single_matches : forall p q d, p <> [] ->
  matches_node (m_put empty_matcher p None) q d 0 = pat_matches p q.
Proof.
  intros p q d Hp. unfold m_put, matches_node, path_matches. destruct p as [|c p]; [congruence|].
  cbn [m_groups empty_matcher groups_put group_get Nat.ltb Nat.leb]. rewrite Nat.sub_0_r.
  destruct (Nat.eqb (length (c :: p)) (length q)) eqn:E.
  - cbn [existsb e_pat e_flt skipn]. unfold filter_ok. now rewrite orb_false_r, andb_true_r.
  - cbn [existsb]. destruct (pat_matches (c :: p) q) eqn:Em; auto.
    apply pat_matches_length in Em. apply Nat.eqb_neq in E. contradiction.
Qed.

Definition b2n (b : bool) : nat := if b then 1 else 0.

(* [Q] selects the entries counted.  A put takes out the entry it replaces (the one with the same path) and brings in
   the new one; a remove takes out the entry found. *)
Lemma entries_put_countQ : forall (Q : entry -> bool) es e,
  length (filter Q (entries_put es e))
  + (match entries_get es (e_pat e) with Some e0 => b2n (Q e0) | None => 0 end)
  = length (filter Q es) + b2n (Q e).
Proof.
  intros Q. induction es as [|x es IH]; intros e; cbn [entries_put entries_get filter length].
  - destruct (Q e); cbn; lia.
  - destruct (pat_eqb (e_pat x) (e_pat e)) eqn:E.
    + cbn [filter]. destruct (Q e), (Q x); cbn; lia.
    + cbn [filter]. specialize (IH e). destruct (Q x); cbn [length]; lia.
Qed.

Lemma groups_put_countQ : forall (Q : entry -> bool) gs d e,
  length (filter Q (flat_map snd (groups_put gs d e)))
  + (match entries_get (group_get gs d) (e_pat e) with Some e0 => b2n (Q e0) | None => 0 end)
  = length (filter Q (flat_map snd gs)) + b2n (Q e).
Proof.
  intros Q. induction gs as [|[k es] gs IH]; intros d e; cbn [groups_put group_get flat_map snd].
  - cbn. destruct (Q e); cbn; lia.
  - destruct (Nat.eqb k d) eqn:E; cbn [flat_map snd]; rewrite !filter_app, !app_length.
    + pose proof (entries_put_countQ Q es e). lia.
    + specialize (IH d e). lia.
Qed.

Lemma entries_remove_countQ : forall (Q : entry -> bool) es p e0, entries_get es p = Some e0 ->
  length (filter Q (entries_remove es p)) + b2n (Q e0) = length (filter Q es).
Proof.
  intros Q. induction es as [|x es IH]; intros p e0 H; cbn [entries_remove entries_get filter] in *; [discriminate|].
  destruct (pat_eqb (e_pat x) p) eqn:E.
  - inversion H; subst. destruct (Q e0); cbn; lia.
  - cbn [filter]. specialize (IH p e0 H). destruct (Q x); cbn [length]; lia.
Qed.

Lemma groups_remove_countQ : forall (Q : entry -> bool) gs d p e0, entries_get (group_get gs d) p = Some e0 ->
  length (filter Q (flat_map snd (groups_remove gs d p))) + b2n (Q e0) = length (filter Q (flat_map snd gs)).
Proof.
  intros Q. induction gs as [|[k es] gs IH]; intros d p e0 H; cbn [groups_remove group_get flat_map snd] in *; [discriminate|].
  destruct (Nat.eqb k d) eqn:E.
  - pose proof (entries_remove_countQ Q es p e0 H) as Hc.
    destruct (entries_remove es p) as [|y ys] eqn:Er; cbn [flat_map snd]; rewrite !filter_app, !app_length.
    + cbn in Hc. lia.
    + lia.
  - cbn [flat_map snd]. rewrite !filter_app, !app_length. specialize (IH d p e0 H). lia.
Qed.

Definition countQ (Q : entry -> bool) (m : matcher) : nat := length (filter Q (all_entries m)).

Lemma put_countQ : forall Q m p f, p <> [] ->
  countQ Q (m_put m p f) + (match m_get m p with Some e0 => b2n (Q e0) | None => 0 end)
  = countQ Q m + b2n (Q (mkEntry p f)).
Proof.
  intros Q m p f Hp. unfold m_put. destruct p as [|c p]; [congruence|].
  apply (groups_put_countQ Q (m_groups m) _ (mkEntry (c :: p) f)).
Qed.

Lemma set_filter_countQ : forall Q m p f e0, m_get m p = Some e0 ->
  countQ Q (m_set_filter m p f) + b2n (Q e0) = countQ Q m + b2n (Q (mkEntry p f)).
Proof.
  intros Q m p f e0 H. unfold m_set_filter. rewrite H.
  pose proof (groups_put_countQ Q (m_groups m) (length p) (mkEntry p f)) as G.
  cbn [e_pat] in G. unfold m_get in H. rewrite H in G. exact G.
Qed.

Lemma remove_countQ : forall Q m p m', m_remove m p = Some m' ->
  exists e0, m_get m p = Some e0 /\ countQ Q m' + b2n (Q e0) = countQ Q m.
Proof.
  intros Q m p m' H. unfold m_remove in H. destruct (m_get m p) as [e0|] eqn:E; [|discriminate].
  inversion H; subst. exists e0. split; [reflexivity|]. apply (groups_remove_countQ Q _ _ _ e0 E).
Qed.

(* for the entries whose path matches q only the path of the entry put or removed matters *)

Lemma count_matching_put : forall m p f q, p <> [] ->
  count_matching (m_put m p f) q
  = count_matching m q + (match m_get m p with Some _ => 0 | None => b2n (pat_matches p q) end).
Proof.
  intros m p f q Hp. pose proof (put_countQ (fun e => pat_matches (e_pat e) q) m p f Hp) as H. cbn [e_pat] in H.
  unfold count_matching, countQ in *. destruct (m_get m p) as [e0|] eqn:E; [|lia].
  apply m_get_some in E as [_ E]. rewrite E in H. lia.
Qed.

Lemma count_matching_set_filter : forall m p f q, count_matching (m_set_filter m p f) q = count_matching m q.
Proof.
  intros m p f q. destruct (m_get m p) as [e0|] eqn:E; [|unfold m_set_filter; now rewrite E].
  pose proof (set_filter_countQ (fun e => pat_matches (e_pat e) q) m p f e0 E) as H. cbn [e_pat] in H.
  apply m_get_some in E as [_ E]. rewrite E in H. unfold count_matching, countQ in *. lia.
Qed.

Lemma count_matching_remove : forall m p m' q, m_remove m p = Some m' ->
  count_matching m' q + b2n (pat_matches p q) = count_matching m q.
Proof.
  intros m p m' q Hr. destruct (remove_countQ (fun e => pat_matches (e_pat e) q) m p m' Hr) as [e0 [E H]].
  apply m_get_some in E as [_ E]. rewrite E in H. exact H.
Qed.

Lemma countQ_all : forall m, countQ (fun _ => true) m = num_entries m.
Proof.
  intros m. unfold countQ, num_entries. f_equal. induction (all_entries m) as [|x l IH]; cbn; [reflexivity|now rewrite IH].
Qed.

Lemma num_entries_put : forall m p f, num_entries (m_put m p f) <= S (num_entries m).
Proof.
  intros m p f. destruct p as [|c p]; [cbn; lia|].
  pose proof (put_countQ (fun _ => true) m (c :: p) f) as H. rewrite !countQ_all in H.
  destruct (m_get m (c :: p)); cbn [b2n] in H; specialize (H ltac:(discriminate)); lia.
Qed.

Lemma num_entries_set_filter : forall m p f, num_entries (m_set_filter m p f) = num_entries m.
Proof.
  intros m p f. destruct (m_get m p) as [e0|] eqn:E; [|unfold m_set_filter; now rewrite E].
  pose proof (set_filter_countQ (fun _ => true) m p f e0 E) as H. rewrite !countQ_all in H. cbn [b2n] in H. lia.
Qed.

Lemma num_entries_remove : forall m p m', m_remove m p = Some m' -> num_entries m' <= num_entries m.
Proof.
  intros m p m' Hr. destruct (remove_countQ (fun _ => true) m p m' Hr) as [e0 [_ H]]. rewrite !countQ_all in H. lia.
Qed.

Lemma filter_len_le : forall (A : Type) (f : A -> bool) l, length (filter f l) <= length l.
Proof. induction l as [|x l IH]; cbn; auto. destruct (f x); cbn; lia. Qed.

Lemma count_le_entries : forall m q, count_matching m q <= num_entries m.
Proof. intros m q. unfold count_matching, num_entries. apply filter_len_le. Qed.

(* the filter counter _numFilters *)

Lemma nf_update : forall (nf : N) (c c' : nat) (had has : bool),
  nf = N.of_nat c -> c' + b2n had = c + b2n has ->
  (if Bool.eqb had has then nf else if has then (nf + 1)%N else (nf - 1)%N) = N.of_nat c'.
Proof. intros nf c c' had has H1 H2. subst nf. destruct had, has; cbn in *; lia. Qed.

Lemma has_filter_mk : forall p f, has_filter (mkEntry p f) = match f with Some _ => true | None => false end.
Proof. intros p f. destruct f; reflexivity. Qed.

Lemma wf_matcher_put : forall m p f, wf_matcher m -> wf_matcher (m_put m p f).
Proof.
  intros m p f [Hw Hn]. split; [now apply wf_put|].
  destruct p as [|c p]; [exact Hn|].
  pose proof (put_countQ has_filter m (c :: p) f ltac:(discriminate)) as H. rewrite has_filter_mk in H.
  apply (nf_update _ (count_filters (m_groups m))); [exact Hn|].
  unfold countQ, all_entries, count_filters in *. cbn [m_put m_groups] in *. destruct (m_get m (c :: p)); exact H || lia.
Qed.

Lemma wf_matcher_set_filter : forall m p f, wf_matcher m -> wf_matcher (m_set_filter m p f).
Proof.
  intros m p f [Hw Hn]. split; [now apply wf_set_filter|].
  destruct (m_get m p) as [e0|] eqn:E; [|unfold m_set_filter; now rewrite E].
  pose proof (set_filter_countQ has_filter m p f e0 E) as H. rewrite has_filter_mk in H.
  unfold m_set_filter in *. rewrite E in *. apply (nf_update _ (count_filters (m_groups m))); [exact Hn|exact H].
Qed.

Lemma wf_matcher_remove : forall m p m', wf_matcher m -> m_remove m p = Some m' -> wf_matcher m'.
Proof.
  intros m p m' [Hw Hn] Hr. split; [now apply (wf_remove m p)|].
  destruct (remove_countQ has_filter m p m' Hr) as [e0 [E H]].
  unfold m_remove in Hr. rewrite E in Hr. inversion Hr; subst m'. cbn [m_nfilters m_groups].
  unfold countQ, all_entries, count_filters in *. cbn [m_groups] in H. rewrite Hn.
  destruct (has_filter e0); cbn [b2n] in H; lia.
Qed.

(* with the counter right, "no filter installed" is what the counter says *)
Lemma nfilters_zero : forall m, wf_matcher m -> (N.ltb 0 (m_nfilters m) = false) ->
  forall e, In e (all_entries m) -> e_flt e = None.
Proof.
  intros m [_ Hn] H e He. apply N.ltb_ge in H. rewrite Hn in H. unfold count_filters in H.
  destruct (e_flt e) eqn:Ef; auto. exfalso.
  assert (Hin : In e (filter has_filter (flat_map snd (m_groups m)))).
  { apply filter_In. split; auto. unfold has_filter. now rewrite Ef. }
  destruct (filter has_filter (flat_map snd (m_groups m))); [contradiction|cbn in H; lia].
Qed.

(* ------------------------------------------------------------------ entries as a set keyed by their path *)

Lemma entries_put_iff : forall es e x, NoDup (map e_pat es) ->
  (In x (entries_put es e) <-> x = e \/ (In x es /\ e_pat x <> e_pat e)).
Proof.
  induction es as [|y es IH]; intros e x Hnd; cbn [entries_put].
  - cbn. split; [intros [H|[]]; now left|intros [H|[[] _]]; now left].
  - cbn in Hnd. inversion Hnd as [|? ? Hy Hnd']; subst.
    destruct (pat_eqb (e_pat y) (e_pat e)) eqn:E.
    + apply pat_eqb_eq in E. cbn [In]. split.
      * intros [H|H]; [now left|]. right. split; [now right|]. intros Hp. apply Hy. rewrite E, <- Hp. now apply in_map.
      * intros [H|[[H|H] Hp]]; [now left| |now right]. subst y. congruence.
    + apply pat_eqb_neq in E. cbn [In]. rewrite IH by auto. split.
      * intros [H|[H|[H Hp]]]; [right; split; [now left|congruence]|now left|right; split; [now right|auto]].
      * intros [H|[[H|H] Hp]]; [right; now left|now left|right; right; auto].
Qed.

Lemma groups_put_iff : forall gs e x, wf_groups gs ->
  (In x (flat_map snd (groups_put gs (length (e_pat e)) e)) <-> x = e \/ (In x (flat_map snd gs) /\ e_pat x <> e_pat e)).
Proof.
  induction gs as [|[k es] gs IH]; intros e x [Hnd Hwf]; cbn [groups_put flat_map snd].
  - cbn. split; [intros [H|[]]; now left|intros [H|[[] _]]; now left].
  - cbn in Hnd. inversion Hnd as [|? ? Hk Hnd']; subst.
    assert (Hgs : wf_groups gs) by (split; auto; intros g Hg; apply Hwf; now right).
    destruct (Hwf (k, es) (or_introl eq_refl)) as [G1 [G2 [G3 G4]]]. cbn [fst snd] in *.
    destruct (Nat.eqb k (length (e_pat e))) eqn:E; cbn [flat_map snd]; rewrite !in_app_iff.
    + apply Nat.eqb_eq in E. rewrite entries_put_iff by auto. split.
      * intros [[H|[H Hp]]|H]; [now left|right; split; [now left|auto]|].
        right. split; [now right|]. intros Hp. apply in_flat_map in H as [g [Hg Hx]].
        destruct (Hwf g (or_intror Hg)) as [_ [_ [Hlen _]]]. apply Hk.
        replace k with (fst g); [now apply in_map|]. rewrite <- (Hlen x Hx), Hp. now symmetry.
      * intros [H|[[H|H] Hp]]; [left; now left|left; right; auto|now right].
    + rewrite (IH e x Hgs). split.
      * intros [H|[H|[H Hp]]]; [|now left|right; split; [now right|auto]].
        right. split; [now left|]. intros Hp. apply Nat.eqb_neq in E. apply E. rewrite <- Hp. symmetry. now apply G3.
      * intros [H|[[H|H] Hp]]; [right; now left|now left|right; right; auto].
Qed.

Lemma all_entries_put : forall m p f x, wf_groups (m_groups m) -> p <> [] ->
  (In x (all_entries (m_put m p f)) <-> x = mkEntry p f \/ (In x (all_entries m) /\ e_pat x <> p)).
Proof.
  intros m p f x Hw Hp. unfold all_entries, m_put. destruct p as [|c p]; [congruence|]. cbn [m_groups].
  apply (groups_put_iff (m_groups m) (mkEntry (c :: p) f) x Hw).
Qed.

Lemma all_entries_set_filter : forall m p f e x, wf_groups (m_groups m) -> m_get m p = Some e ->
  (In x (all_entries (m_set_filter m p f)) <-> x = mkEntry p f \/ (In x (all_entries m) /\ e_pat x <> p)).
Proof.
  intros m p f e x Hw Hg. unfold all_entries, m_set_filter. rewrite Hg. cbn [m_groups].
  apply (groups_put_iff (m_groups m) (mkEntry p f) x Hw).
Qed.

Lemma groups_remove_in : forall gs d p x, In x (flat_map snd (groups_remove gs d p)) -> In x (flat_map snd gs).
Proof.
  induction gs as [|[k es] gs IH]; intros d p x H; cbn [groups_remove flat_map snd] in *; auto.
  destruct (Nat.eqb k d).
  - destruct (entries_remove es p) as [|y ys] eqn:Er.
    + apply in_or_app. now right.
    + cbn [flat_map snd] in H. apply in_app_or in H as [H|H]; apply in_or_app; [left|now right].
      apply (entries_remove_in es p). now rewrite Er.
  - cbn [flat_map snd] in H. apply in_app_or in H as [H|H]; apply in_or_app; [now left|right; eauto].
Qed.

Lemma all_entries_remove : forall m p m' x, m_remove m p = Some m' -> In x (all_entries m') -> In x (all_entries m).
Proof.
  intros m p m' x H Hx. unfold m_remove in H. destruct (m_get m p); [|discriminate]. inversion H; subst.
  unfold all_entries in *. cbn [m_groups] in Hx. now apply groups_remove_in in Hx.
Qed.

(* ------------------------------------------------------------------ a matcher built from a key list *)

Lemma fold_put_wf : forall (l : list (pat * option qfilter)) m, wf_groups (m_groups m) ->
  wf_groups (m_groups (fold_left (fun m pf => m_put m (fst pf) (snd pf)) l m)).
Proof. induction l as [|pf l IH]; intros m H; cbn; auto. apply IH. now apply wf_put. Qed.

Lemma m_of_list_wf : forall l, wf_groups (m_groups (m_of_list l)).
Proof. intros l. unfold m_of_list. apply fold_put_wf. apply (proj1 wf_empty). Qed.

Lemma fold_put_entries : forall (l : list (pat * option qfilter)) m x, wf_groups (m_groups m) ->
  NoDup (map fst l) -> (forall pf, In pf l -> fst pf <> []) ->
  (forall pf e, In pf l -> In e (all_entries m) -> e_pat e <> fst pf) ->
  (In x (all_entries (fold_left (fun m pf => m_put m (fst pf) (snd pf)) l m))
   <-> In x (all_entries m) \/ exists pf, In pf l /\ x = mkEntry (fst pf) (snd pf)).
Proof.
  induction l as [|[p f] l IH]; intros m x Hw Hnd Hne Hdis; cbn [fold_left].
  - split; [now left|]. intros [H|[pf [[] _]]]. exact H.
  - cbn [map fst] in Hnd. inversion Hnd as [|? ? Hp Hnd']; subst. cbn [fst snd].
    assert (Hpne : p <> []) by (apply (Hne (p, f)); now left).
    rewrite IH; auto.
    + rewrite all_entries_put by auto. split.
      * intros [[H|[H _]]|[pf [H1 H2]]].
        -- right. exists (p, f). split; [now left|auto].
        -- now left.
        -- right. exists pf. split; [now right|auto].
      * intros [H|[pf [[H1|H1] H2]]].
        -- left. right. split; auto. apply (Hdis (p, f) x); auto. now left.
        -- subst pf. left. left. exact H2.
        -- right. exists pf. auto.
    + now apply wf_put.
    + intros pf Hpf. apply Hne. now right.
    + intros pf e Hpf He. apply all_entries_put in He as [He|[He _]]; auto.
      * subst e. cbn [e_pat]. intros E. apply Hp. rewrite E. now apply in_map.
      * apply (Hdis pf e); auto. now right.
Qed.

Lemma m_of_list_entries : forall l x, NoDup (map fst l) -> (forall pf, In pf l -> fst pf <> []) ->
  (In x (all_entries (m_of_list l)) <-> exists pf, In pf l /\ x = mkEntry (fst pf) (snd pf)).
Proof.
  intros l x Hnd Hne. unfold m_of_list.
  rewrite fold_put_entries; [|apply (proj1 wf_empty)|exact Hnd|exact Hne|intros pf e _ []].
  split; [intros [[]|H]; auto|intros H; now right].
Qed.

End MatcherProofs.
