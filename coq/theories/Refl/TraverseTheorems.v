(* Refl/TraverseTheorems.v -- what a traversal visits: the visit list V of Refl/TraverseProofs.v has no
   duplicates and is exactly the set of nodes below the root accepted by PathMatcher::MatchesPath (for the repaired
   multi-pattern guard; with the guard as found the statement is refuted by the two-pattern witness of finding F12).

   Premises (Section hypotheses, they become premises of every theorem):
     ckeys_sound / ckeys_complete : a clause that reports lookup keys matches exactly those names (C15); soundness is
                                    only needed of the names that occur in the tree ([okname]: e.g. non-empty strings)
     tree_wf t                    : node paths distinct and non-empty, parents present
     matcher_wf m                 : group keys distinct, an entry sits in the group of its clause count *)
From Coq Require Import List NArith ZArith Bool Arith Lia.
From Muscle Require Import Refl.Base Refl.BaseProofs Refl.Tree Refl.TreeProofs Refl.Matcher Refl.MatcherProofs Refl.Traverse
     Refl.TravBase Refl.TraverseProofs.
Import ListNotations.

Lemma nodup_app_intro : forall (A : Type) (a b : list A),
  NoDup a -> NoDup b -> (forall x, In x a -> ~ In x b) -> NoDup (a ++ b).
Proof. exact NoDup_app_intro. Qed.

Lemma path_mem_in : forall (p : path) (l : list path), path_mem p l = true <-> In p l.
Proof.
  intros p l. induction l as [|q l IH]; cbn; [split; [discriminate | intros []]|].
  rewrite orb_true_iff, IH, path_eqb_eq. tauto.
Qed.

Lemma path_mem_false : forall (p : path) (l : list path), path_mem p l = false <-> ~ In p l.
Proof.
  intros p l. rewrite <- path_mem_in. destruct (path_mem p l); split; intros H; try reflexivity; try discriminate.
  exfalso. now apply H.
Qed.

Lemma app_snoc_neq : forall (A : Type) (x r : list A), r <> [] -> x ++ r <> x.
Proof.
  intros A x r Hr E. assert (L : length (x ++ r) = length x) by now rewrite E.
  rewrite app_length in L. destruct r; [now apply Hr | cbn in L; lia].
Qed.

Section Props.
Context {M : MatchOps}.
Variable okname : name -> Prop.
Hypothesis ckeys_sound : forall (c : clause) (ks : list name) (k : name), okname k -> ckeys c = Some ks -> cmatch c k = true -> In k ks.
Hypothesis ckeys_complete : forall (c : clause) (ks : list name) (k : name), ckeys c = Some ks -> In k ks -> cmatch c k = true.
Variable t : tree.
Variable m : matcher.
Variable root : path.
Variable use_filters : bool.
Variable guard_fixed : bool.
Hypothesis TWF : tree_wf t.
Hypothesis MWF : matcher_wf m.
Hypothesis NOK : forall n, In n t -> Forall okname (n_path n).

Local Notation rd := (length root).
Local Notation ACT := (actions m rd use_filters guard_fixed).
Local Notation GOK := (guard_ok m rd use_filters guard_fixed).
Local Notation LKP := (lk_pairs t).
Local Notation PROCS := (procs t m).
Local Notation VV := (V t m rd use_filters guard_fixed).
Local Notation CV := (child_visits m rd use_filters guard_fixed).

(* ------------------------------------------------------------------ what CheckChildForTraversal does for one child *)

(* entry e makes the loop take action a (when that action has not been taken yet) *)
Definition fires (child : node) (rel : nat) (a : action) (e : entry) : bool :=
  match a with
  | ACall => Nat.eqb (length (e_pat e)) (S rel) && GOK child e
  | ARec => negb (Nat.eqb (length (e_pat e)) (S rel))
  end.

(* from position idx on, some entry is hit and fires a *)
Definition pending (child : node) (rel : nat) (known : option nat) (a : action) (es : list entry) (idx : nat) : Prop :=
  exists i e, nth_error es i = Some e /\ hit child rel known e (idx + i) = true /\ fires child rel a e = true.

Lemma pending_cons : forall child rel known a e0 es idx,
  pending child rel known a (e0 :: es) idx <->
  (hit child rel known e0 idx = true /\ fires child rel a e0 = true) \/ pending child rel known a es (S idx).
Proof.
  intros child rel known a e0 es idx. unfold pending. split.
  - intros [[|i] [e [Hn [Hh Hf]]]]; cbn in Hn.
    + inversion Hn; subst e. rewrite Nat.add_0_r in Hh. now left.
    + right. exists i, e. now rewrite Nat.add_succ_r in Hh.
  - intros [[Hh Hf]|[i [e [Hn [Hh Hf]]]]].
    + exists 0, e0. now rewrite Nat.add_0_r.
    + exists (S i), e. now rewrite Nat.add_succ_r.
Qed.

(* each action is taken at most once, and exactly when an entry asks for it *)
Lemma actions_in : forall a es child rel known idx matched recursed,
  In a (ACT child rel known es idx matched recursed) <->
  (match a with ACall => matched | ARec => recursed end) = false /\ pending child rel known a es idx.
Proof.
  intros a. induction es as [|e es IH]; intros child rel known idx matched recursed.
  - cbn. split; [intros []|]. intros [_ [[|i] [e [H _]]]]; discriminate.
  - (* once the tests on the head entry are decided, every case is propositional *)
    rewrite pending_cons. cbn [actions]. unfold fires.
    destruct (hit child rel known e idx); [|rewrite IH; intuition congruence].
    destruct (Nat.eqb (length (e_pat e)) (S rel)).
    + destruct matched; [rewrite IH; destruct a; cbn; intuition congruence|].
      destruct (GOK child e); [|rewrite IH; destruct a; cbn; intuition congruence].
      destruct recursed; cbn [In]; [destruct a; cbn; intuition congruence|].
      rewrite IH. destruct a; cbn; intuition congruence.
    + destruct recursed; [rewrite IH; destruct a; cbn; intuition congruence|].
      destruct matched; cbn [In]; [destruct a; cbn; intuition congruence|].
      rewrite IH. destruct a; cbn; intuition congruence.
Qed.

Lemma actions_nodup : forall es child rel known idx matched recursed, NoDup (ACT child rel known es idx matched recursed).
Proof.
  induction es as [|e es IH]; intros child rel known idx matched recursed; cbn [actions]; [constructor|].
  destruct (hit child rel known e idx); [|apply IH].
  destruct (Nat.eqb (length (e_pat e)) (S rel)).
  - destruct matched; [apply IH|]. destruct (GOK child e); [|apply IH].
    constructor; [|destruct recursed; [constructor|apply IH]].
    destruct recursed; [intros []|]. rewrite actions_in. intros [H _]. discriminate.
  - destruct recursed; [apply IH|].
    constructor; [|destruct matched; [constructor|apply IH]].
    destruct matched; [intros []|]. rewrite actions_in. intros [H _]. discriminate.
Qed.

(* ------------------------------------------------------------------ which children DoTraversalAux processes *)

Local Notation cpath := (fun ck : node * option nat => n_path (fst ck)).

(* every child found comes from a lookup and was not done before; no child twice; every lookup that finds a child
   finds one that was done before or is in the list *)
Lemma lk_pairs_spec : forall x iks did,
  (forall c kn, In (c, kn) (fst (LKP x iks did)) ->
     path_mem (n_path c) did = false /\ exists i k, kn = Some i /\ In (i, k) iks /\ get_child t x k = Some c) /\
  NoDup (map cpath (fst (LKP x iks did))) /\
  (forall i k c, In (i, k) iks -> get_child t x k = Some c ->
     path_mem (n_path c) did = true \/ In (n_path c) (map cpath (fst (LKP x iks did)))).
Proof.
  intros x. induction iks as [|[i k] r IH]; intros did; cbn [lk_pairs].
  - cbn. split; [intros c kn []|split; [constructor|intros i k c []]].
  - (* a lookup that finds no child, or one that was done before, adds nothing: the list is that of the remaining lookups *)
    assert (Skip : forall did', (get_child t x k = None \/ exists c, get_child t x k = Some c /\ path_mem (n_path c) did' = true) ->
      (forall c kn, In (c, kn) (fst (LKP x r did')) ->
         path_mem (n_path c) did' = false /\ exists i0 k0, kn = Some i0 /\ In (i0, k0) ((i, k) :: r) /\ get_child t x k0 = Some c) /\
      NoDup (map cpath (fst (LKP x r did'))) /\
      (forall i0 k0 c, In (i0, k0) ((i, k) :: r) -> get_child t x k0 = Some c ->
         path_mem (n_path c) did' = true \/ In (n_path c) (map cpath (fst (LKP x r did'))))).
    { intros did' Hk. destruct (IH did') as [I1 [I2 I3]]. split; [|split; [exact I2|]].
      - intros c0 kn H0. destruct (I1 c0 kn H0) as [A1 [i0 [k0 [A2 [A3 A4]]]]]. split; [exact A1|].
        exists i0, k0. split; [exact A2|split; [now right|exact A4]].
      - intros i0 k0 c0 [E|Hin] Hg; [|now apply (I3 i0 k0 c0)]. inversion E; subst i0 k0.
        destruct Hk as [Hk|[c [Hk Hm]]]; rewrite Hk in Hg; [discriminate|]. inversion Hg; subst c0. now left. }
    destruct (get_child t x k) as [c|] eqn:Hc; [|apply Skip; now left].
    destruct (path_mem (n_path c) did) eqn:Hm; [apply Skip; right; now exists c|].
    destruct (IH (n_path c :: did)) as [I1 [I2 I3]]. cbn [fst map]. split; [|split].
    + intros c0 kn [H0|H0].
      * inversion H0; subst c0 kn. split; [exact Hm|]. exists i, k. split; [reflexivity|split; [now left|exact Hc]].
      * destruct (I1 c0 kn H0) as [A1 [i0 [k0 [A2 [A3 A4]]]]]. cbn in A1. apply orb_false_iff in A1 as [_ A1].
        split; [exact A1|]. exists i0, k0. split; [exact A2|split; [now right|exact A4]].
    + constructor; [|exact I2]. intros Hin. apply in_map_iff in Hin as [[c0 kn] [E H0]]. cbn in E.
      destruct (I1 c0 kn H0) as [A1 _]. cbn in A1. rewrite E, path_eqb_refl in A1. discriminate.
    + intros i0 k0 c0 [E|Hin] Hg.
      * inversion E; subst i0 k0. rewrite Hc in Hg. inversion Hg; subst c0. right. now left.
      * destruct (I3 i0 k0 c0 Hin Hg) as [H|H]; [|right; now right]. cbn in H. apply orb_true_iff in H as [H|H]; [|now left].
        apply path_eqb_eq in H. right. left. exact H.
Qed.

Lemma cands_in : forall rel es idx i k,
  In (i, k) (cands rel es idx) <-> exists j e, i = idx + j /\ nth_error es j = Some e /\ In k (keys_of e rel).
Proof.
  intros rel. induction es as [|e es IH]; intros idx i k; cbn [cands].
  - split; [intros []|intros [[|j] [e [_ [H _]]]]; discriminate].
  - rewrite in_app_iff, in_map_iff, IH. split.
    + intros [[k0 [E Hk]]|[j [e0 [E [Hn Hk]]]]].
      * inversion E; subst. exists 0, e. now rewrite Nat.add_0_r.
      * exists (S j), e0. now rewrite Nat.add_succ_r.
    + intros [[|j] [e0 [E [Hn Hk]]]]; cbn in Hn.
      * inversion Hn; subst e0. left. exists k. now rewrite Nat.add_0_r in E; subst.
      * right. exists j, e0. now rewrite Nat.add_succ_r in E.
Qed.

(* a child found by the key of entry number i really matches that entry's clause *)
Lemma procs_known : forall x rel c i, In (c, Some i) (PROCS x rel) ->
  exists e, nth_error (active m rel) i = Some e /\ cmatch (clause_at e rel) (last_name (n_path c)) = true.
Proof.
  intros x rel c i H. unfold procs in H.
  destruct (existsb (fun e => is_wild (clause_at e rel)) (active m rel)).
  - apply in_map_iff in H. destruct H as [c0 [E _]]. discriminate.
  - destruct (lk_pairs_spec x (cands rel (active m rel) 0) []) as [I1 _].
    destruct (I1 c (Some i) H) as [_ [i0 [k [A1 [A2 A3]]]]]. inversion A1; subst i0.
    apply cands_in in A2 as [j [e [E [A4 A5]]]]. cbn in E. subst j.
    exists e. split; [assumption|]. apply get_child_some in A3 as [_ A3]. rewrite A3, last_name_snoc.
    unfold keys_of in A5. destruct (ckeys (clause_at e rel)) as [ks|] eqn:Hk; [|destruct A5].
    now apply (ckeys_complete (clause_at e rel) ks).
Qed.

Lemma procs_nodup : forall x rel, NoDup (map cpath (PROCS x rel)).
Proof.
  intros x rel. unfold procs. destruct (existsb (fun e => is_wild (clause_at e rel)) (active m rel)).
  - rewrite map_map. cbn. apply children_nodup. apply TWF.
  - apply (lk_pairs_spec x (cands rel (active m rel) 0) []).
Qed.

Lemma procs_complete : forall x rel c k e,
  In c t -> n_path c = x ++ [k] -> In e (active m rel) -> cmatch (clause_at e rel) k = true ->
  exists kn, In (c, kn) (PROCS x rel).
Proof.
  intros x rel c k e Hc Hp He Hm. unfold procs.
  destruct (existsb (fun e => is_wild (clause_at e rel)) (active m rel)) eqn:Hw.
  - exists None. apply in_map_iff. exists c. split; [reflexivity|]. apply children_in. split; [assumption | now exists k].
  - destruct (lk_pairs_spec x (cands rel (active m rel) 0) []) as [I1 [_ I3]].
    assert (Hnw : is_wild (clause_at e rel) = false).
    { destruct (is_wild (clause_at e rel)) eqn:E; [|reflexivity].
      assert (X : existsb (fun e => is_wild (clause_at e rel)) (active m rel) = true) by (apply existsb_exists; now exists e).
      congruence. }
    unfold is_wild in Hnw. destruct (ckeys (clause_at e rel)) as [ks|] eqn:Hk; [|discriminate].
    assert (Hok : okname k).
    { assert (F := NOK c Hc). rewrite Hp in F. rewrite Forall_forall in F. apply F. apply in_or_app. right. now left. }
    assert (Hin : In k (keys_of e rel)) by (unfold keys_of; rewrite Hk; now apply (ckeys_sound (clause_at e rel) ks)).
    assert (Hg : get_child t x k = Some c) by (apply get_child_in; [apply TWF | assumption | assumption]).
    destruct (In_nth_error _ _ He) as [j Hj].
    destruct (I3 j k c) as [Hx|Hx]; [apply cands_in; now exists j, e|exact Hg|discriminate|].
    apply in_map_iff in Hx as [[c0 kn] [E H0]]. cbn in E. exists kn.
    destruct (I1 c0 kn H0) as [_ [i0 [k0 [_ [_ A]]]]]. pose proof (get_child_some _ _ _ _ A) as [_ A'].
    rewrite E, Hp in A'. apply app_inv_head in A'. inversion A'; subst k0. rewrite Hg in A. inversion A; subst c0. exact H0.
Qed.

(* ------------------------------------------------------------------ the visit list *)

Lemma V_below : forall fuel x n, In n (VV fuel x) -> In n t /\ exists r, r <> [] /\ n_path n = x ++ r.
Proof. exact (V_is_below t m rd use_filters guard_fixed). Qed.

Lemma V_nodup : forall fuel x, NoDup (map n_path (VV fuel x)).
Proof.
  induction fuel as [|f IH]; intros x; [constructor|].
  cbn [V]. rewrite map_flat_map.
  assert (Hbelow : forall ck p, In ck (PROCS x (length x - rd)) -> In p (map n_path (CV (VV f) (length x - rd) ck)) ->
                   exists k r, n_path (fst ck) = x ++ [k] /\ p = x ++ k :: r).
  { intros ck p Hck Hp. destruct (procs_in t m _ _ _ Hck) as [_ [k Hk]]. exists k.
    apply in_map_iff in Hp as [n [E Hn]]. subst p. apply act_nodes_in in Hn as [Hn|Hn].
    - subst n. exists []. now split.
    - apply V_below in Hn as [_ [r [_ Hp]]]. exists r. split; [assumption|]. now rewrite Hp, Hk, <- app_assoc. }
  apply NoDup_flat_map.
  - apply (NoDup_map_inv cpath). apply procs_nodup.
  - intros ck Hck. unfold child_visits. rewrite map_flat_map. apply NoDup_flat_map.
    + apply actions_nodup.
    + intros [|] _; [repeat constructor; intros []|apply IH].
    + (* the child itself is not among the nodes below it *)
      assert (Hself : ~ In (n_path (fst ck)) (map n_path (VV f (n_path (fst ck))))).
      { intros Hin. apply in_map_iff in Hin as [n [E Hn]]. apply V_below in Hn as [_ [r [Hr Hp]]].
        rewrite Hp in E. now apply (app_snoc_neq _ (n_path (fst ck)) r Hr). }
      intros [|] [|] p _ _ Hne H1 H2; try congruence; [destruct H1 as [H1|[]]|destruct H2 as [H2|[]]]; now subst p.
  - (* what two processed children contribute differs in the name after x *)
    intros ck ck' p Hck Hck' Hne Hp Hp'.
    destruct (Hbelow ck p Hck Hp) as [k [r [Hk E]]]. destruct (Hbelow ck' p Hck' Hp') as [k' [r' [Hk' E']]].
    rewrite E in E'. apply app_inv_head in E'. inversion E'; subst k'.
    apply Hne. apply (NoDup_map_inj _ _ cpath (PROCS x (length x - rd))); auto; [apply procs_nodup|]. cbn. congruence.
Qed.

(* the data the filters of a traversal see *)
Definition fdata (n : node) : option payload := if use_filters then Some (n_data n) else None.

(* the brute-force test: PathMatcher::MatchesPath on the node's path relative to the root *)
Definition bf (n : node) : bool := matches_path m (skipn rd (n_path n)) (fdata n).

Lemma skipn_root : forall r : path, skipn rd (root ++ r) = r.
Proof. intros r. rewrite skipn_app, skipn_all, Nat.sub_diag. reflexivity. Qed.

Lemma hit_cmatch : forall x rel c kn e i,
  In (c, kn) (PROCS x rel) -> nth_error (active m rel) i = Some e -> hit c rel kn e i = true ->
  cmatch (clause_at e rel) (last_name (n_path c)) = true.
Proof.
  intros x rel c kn e i Hck Hn Hh. unfold hit in Hh. apply orb_true_iff in Hh. destruct Hh as [Hh|Hh]; [|assumption].
  destruct kn as [i0|]; [|discriminate]. apply Nat.eqb_eq in Hh. subst i0.
  destruct (procs_known _ _ _ _ Hck) as [e0 [H0 H1]]. rewrite Hn in H0. inversion H0; subst e0. assumption.
Qed.

Lemma clause_at_nth : forall e rel, rel < length (e_pat e) -> nth_error (e_pat e) rel = Some (clause_at e rel).
Proof. intros e rel H. unfold clause_at. now apply nth_error_nth'. Qed.

Lemma single_entry : forall e1 e2, num_entries m = 1 -> In e1 (all_entries m) -> In e2 (all_entries m) -> e1 = e2.
Proof.
  intros e1 e2 H H1 H2. unfold num_entries in H. destruct (all_entries m) as [|a [|b l]]; try discriminate.
  destruct H1 as [H1|[]], H2 as [H2|[]]. congruence.
Qed.

(* soundness: with the repaired guard every node called back on is accepted by the brute-force test *)
Lemma V_sound : guard_fixed = true ->
  forall fuel rx n,
    (num_entries m = 1 -> forall e, In e (all_entries m) -> pre_matches (e_pat e) rx = true) ->
    In n (VV fuel (root ++ rx)) -> bf n = true.
Proof.
  intros GF. induction fuel as [|f IH]; intros rx n Inv H; [destruct H|].
  cbn [V] in H. rewrite app_length in H. replace (rd + length rx - rd) with (length rx) in H by lia.
  apply in_flat_map in H. destruct H as [[c kn] [Hck Hn]].
  destruct (procs_in t m _ _ _ Hck) as [Hct [k Hcp]]. cbn [fst] in Hct, Hcp.
  unfold child_visits in Hn. cbn [fst snd] in Hn. apply in_flat_map in Hn. destruct Hn as [a [Ha Hn]].
  assert (Hname : last_name (n_path c) = k) by (rewrite Hcp; apply last_name_snoc).
  destruct a.
  - destruct Hn as [Hn|[]]. subst n.
    apply actions_in in Ha as [_ [i [e [H1 [H2 Hf]]]]]. cbn in H2, Hf.
    apply andb_true_iff in Hf as [H3 H4]. apply Nat.eqb_eq in H3.
    assert (Hact : In e (active m (length rx))) by (eapply nth_error_In; eassumption).
    apply (active_spec m _ e MWF) in Hact. destruct Hact as [Hall Hlen].
    unfold bf. rewrite Hcp, <- app_assoc, skipn_root.
    unfold guard_ok in H4. apply orb_true_iff in H4. destruct H4 as [H4|H4].
    + apply andb_true_iff in H4. destruct H4 as [Hs Hf].
      unfold single_guard in Hs. rewrite GF in Hs. apply Nat.eqb_eq in Hs.
      apply (matches_path_spec m _ _ MWF). exists e. split; [assumption|]. split.
      * rewrite pat_matches_pre. apply andb_true_iff. split.
        -- rewrite pre_matches_snoc. rewrite (Inv Hs e Hall). cbn.
           rewrite (clause_at_nth e _ Hlen). rewrite <- Hname. now apply (hit_cmatch _ _ _ _ _ _ Hck H1 H2).
        -- rewrite H3, app_length. cbn [length]. apply Nat.eqb_eq. lia.
      * unfold fdata. apply orb_true_iff in Hf. destruct Hf as [Hf|Hf].
        -- apply negb_true_iff in Hf. rewrite Hf. destruct (e_flt e); reflexivity.
        -- apply negb_true_iff in Hf. unfold has_filter in Hf. destruct (e_flt e); [discriminate | reflexivity].
    + rewrite Hcp, <- app_assoc in H4. rewrite matches_node_rel in H4. exact H4.
  - apply actions_in in Ha as [_ [i [e [H1 [H2 H3]]]]]. cbn in H2.
    assert (Hact : In e (active m (length rx))) by (eapply nth_error_In; eassumption).
    apply (active_spec m _ e MWF) in Hact. destruct Hact as [Hall Hlen].
    rewrite Hcp, <- app_assoc in Hn. apply (IH (rx ++ [k]) n); [|assumption].
    intros Hs e' He'. rewrite (single_entry e' e Hs He' Hall).
    rewrite pre_matches_snoc. rewrite (Inv Hs e Hall). cbn.
    rewrite (clause_at_nth e _ Hlen). rewrite <- Hname. now apply (hit_cmatch _ _ _ _ _ _ Hck H1 H2).
Qed.

Lemma max_clauses_ge : forall e, In e (all_entries m) -> length (e_pat e) <= max_clauses m.
Proof.
  intros e H. apply all_entries_in in H. destruct H as [d [es [H1 H2]]].
  destruct MWF as [_ LEN]. rewrite (LEN d es e H1 H2).
  unfold max_clauses. clear - H1. induction (m_groups m) as [|g gs IH]; [destruct H1|].
  cbn. destruct H1 as [H1|H1]; [subst g; cbn; lia | specialize (IH H1); lia].
Qed.

(* completeness: every node below the start node that the brute-force test accepts is called back on *)
Lemma V_complete : forall fuel rx r n,
  max_clauses m < fuel + length rx ->
  In n t -> n_path n = root ++ rx ++ r -> r <> [] -> bf n = true -> In n (VV fuel (root ++ rx)).
Proof.
  induction fuel as [|f IH]; intros rx r n Hfuel Hnt Hp Hr Hbf.
  - exfalso. unfold bf in Hbf. rewrite Hp, skipn_root in Hbf.
    apply (matches_path_spec m _ _ MWF) in Hbf. destruct Hbf as [e [He [Hpm _]]].
    apply pat_matches_length in Hpm. rewrite app_length in Hpm. apply max_clauses_ge in He.
    destruct r; [now apply Hr | cbn in Hpm; lia].
  - destruct r as [|k r]; [now contradiction Hr|].
    assert (Hbf' := Hbf). unfold bf in Hbf'. rewrite Hp, skipn_root in Hbf'.
    apply (matches_path_spec m _ _ MWF) in Hbf'. destruct Hbf' as [e [He [Hpm Hfl]]].
    assert (Hlen : length (e_pat e) = length rx + S (length r))
      by (apply pat_matches_length in Hpm; rewrite app_length in Hpm; exact Hpm).
    assert (Hact : In e (active m (length rx))) by (apply (active_spec m _ e MWF); split; [assumption | lia]).
    assert (Hpre : pre_matches (e_pat e) (rx ++ k :: r) = true)
      by (rewrite pat_matches_pre in Hpm; apply andb_true_iff in Hpm; tauto).
    destruct (pre_matches_nth _ _ _ _ Hpre) as [cl [Hcl Hcm]].
    assert (Hcl' : cl = clause_at e (length rx)).
    { rewrite (clause_at_nth e (length rx)) in Hcl by lia. now inversion Hcl. }
    subst cl.
    destruct (ancestor_exists t TWF r n (root ++ rx) k Hnt) as [c [Hct Hcp]]; [rewrite Hp, <- app_assoc; reflexivity|].
    destruct (procs_complete (root ++ rx) (length rx) c k e Hct Hcp Hact Hcm) as [kn Hck].
    destruct (In_nth_error _ _ Hact) as [i Hi].
    assert (Hhit : hit c (length rx) kn e (0 + i) = true).
    { unfold hit. apply orb_true_iff. right. rewrite Hcp, last_name_snoc. exact Hcm. }
    cbn [V]. rewrite app_length. replace (rd + length rx - rd) with (length rx) by lia.
    apply in_flat_map. exists (c, kn). split; [assumption|].
    unfold child_visits. cbn [fst snd]. apply in_flat_map.
    destruct r as [|k' r].
    + (* n is the child itself: the entry is terminal here *)
      assert (n = c).
      { apply (NoDup_map_inj _ _ n_path t); [apply TWF | assumption | assumption |].
        rewrite Hp, Hcp, <- app_assoc. reflexivity. }
      subst c. exists ACall. split; [|now left].
      apply actions_in. split; [reflexivity|]. exists i, e. split; [exact Hi|split; [exact Hhit|]].
      cbn. apply andb_true_iff. split; [apply Nat.eqb_eq; cbn in Hlen; lia|].
      unfold guard_ok. apply orb_true_iff. right.
      rewrite Hcp, <- app_assoc, matches_node_rel.
      unfold bf in Hbf. rewrite Hp, skipn_root in Hbf. exact Hbf.
    + exists ARec. split.
      * apply actions_in. split; [reflexivity|]. exists i, e. split; [exact Hi|split; [exact Hhit|]].
        cbn. apply negb_true_iff, Nat.eqb_neq. cbn in Hlen. lia.
      * rewrite Hcp, <- app_assoc. apply (IH (rx ++ [k]) (k' :: r) n); try assumption.
        -- rewrite app_length. cbn. lia.
        -- rewrite Hp, <- !app_assoc. reflexivity.
        -- discriminate.
Qed.

End Props.

(* ------------------------------------------------------------------ PathMatcher tables built by PutPathString are well formed *)

Section MatcherWf.
Context {M : MatchOps}.

Lemma m_put_wf : forall (m : matcher) (p : pat) (f : option qfilter), matcher_wf m -> matcher_wf (m_put m p f).
Proof.
  intros m p f [ND LEN]. unfold m_put. destruct p as [|c p]; [now split|].
  split; cbn [m_groups]; [now apply groups_put_nodup|].
  intros d es x Hg. revert x.
  apply (groups_put_all (fun g => forall x, In x (snd g) -> length (e_pat x) = fst g) (m_groups m) (length (c :: p))
           (mkEntry (c :: p) f)) with (g := (d, es)); [| | |exact Hg].
  - intros [d' es'] H x Hx. exact (LEN d' es' x H Hx).
  - intros x [Hx|[]]. now subst.
  - intros es' H x Hx. apply entries_put_in in Hx as [Hx|Hx]; [now subst|now apply H].
Qed.

Lemma empty_matcher_wf : matcher_wf empty_matcher.
Proof. split; [constructor | intros d es e []]. Qed.

Lemma m_of_list_wf : forall l : list (pat * option qfilter), matcher_wf (m_of_list l).
Proof.
  intros l. unfold m_of_list.
  assert (G : forall m0, matcher_wf m0 -> matcher_wf (fold_left (fun m pf => m_put m (fst pf) (snd pf)) l m0)).
  { induction l as [|pf l IH]; intros m0 H; cbn; [assumption|]. apply IH. now apply m_put_wf. }
  apply G. apply empty_matcher_wf.
Qed.

End MatcherWf.

(* ------------------------------------------------------------------ the theorem about NodePathMatcher::DoTraversal *)

Section Main.
Context {M : MatchOps}.
Variable okname : name -> Prop.
Hypothesis ckeys_sound : forall (c : clause) (ks : list name) (k : name), okname k -> ckeys c = Some ks -> cmatch c k = true -> In k ks.
Hypothesis ckeys_complete : forall (c : clause) (ks : list name) (k : name), ckeys c = Some ks -> In k ks -> cmatch c k = true.

Lemma visits_V : forall t m root uf gf, visits t m root uf gf = V t m (length root) uf gf (S (max_clauses m)) root.
Proof.
  intros. unfold visits, do_traversal. rewrite trav_continue. cbn [fst].
  rewrite fold_left_cons_rev, app_nil_r. apply rev_involutive.
Qed.

(* what "below the root and accepted by PathMatcher::MatchesPath" means for a node *)
Definition selected (t : tree) (m : matcher) (root : path) (use_filters : bool) (n : node) : Prop :=
  In n t /\ (exists r, r <> [] /\ n_path n = root ++ r) /\
  matches_path m (skipn (length root) (n_path n)) (if use_filters then Some (n_data n) else None) = true.

Theorem traversal_eq_bruteforce_lemma : forall t m root use_filters,
  tree_wf t -> matcher_wf m -> (forall n, In n t -> Forall okname (n_path n)) ->
  NoDup (map n_path (visits t m root use_filters true)) /\
  (forall n, In n (visits t m root use_filters true) <-> selected t m root use_filters n).
Proof.
  intros t m root uf TWF MWF NOK. rewrite visits_V. split.
  - now apply V_nodup.
  - intros n. unfold selected. split.
    + intros H. destruct (V_below t m root uf true _ _ _ H) as [Hn Hb].
      split; [assumption|]. split; [assumption|].
      apply (V_sound ckeys_complete t m root uf true MWF eq_refl (S (max_clauses m)) [] n).
      * intros _ e _. reflexivity.
      * rewrite app_nil_r. exact H.
    + intros [Hn [[r [Hr Hp]] Hbf]].
      assert (X : In n (V t m (length root) uf true (S (max_clauses m)) (root ++ []))).
      { apply (V_complete okname ckeys_sound t m root uf true TWF MWF NOK _ [] r n); try assumption. cbn. lia. }
      rewrite app_nil_r in X. exact X.
Qed.

End Main.
