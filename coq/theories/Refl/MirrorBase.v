(* Refl/MirrorBase.v -- the client's mirror read extensionally (through mirror_get), and what one
   PR_RESULT_DATAITEMS Message does to it. *)
From Coq Require Import List NArith ZArith Bool Arith Lia.
From Muscle Require Import Refl.Base Refl.BaseProofs Refl.Session Refl.Mirror.
Import ListNotations.

Lemma mirror_get_set : forall m p v q, mirror_get (mirror_set m p v) q = if path_eqb p q then Some v else mirror_get m q.
Proof.
  induction m as [|[k w] m IH]; intros p v q; cbn.
  - destruct (path_eqb p q); reflexivity.
  - destruct (path_eqb k p) eqn:E; cbn.
    + apply path_eqb_eq in E. subst k. destruct (path_eqb p q); reflexivity.
    + rewrite IH. destruct (path_eqb k q) eqn:E'; auto.
      apply path_eqb_eq in E'. subst k. now rewrite path_eqb_sym, E.
Qed.

Lemma mirror_get_remove : forall m p q, mirror_get (mirror_remove m p) q = if path_eqb p q then None else mirror_get m q.
Proof.
  intros m p q. unfold mirror_remove. induction m as [|[k w] m IH]; cbn [filter mirror_get fst].
  - destruct (path_eqb p q); reflexivity.
  - destruct (path_eqb k p) eqn:E; cbn [negb mirror_get].
    + apply path_eqb_eq in E. subst k. rewrite IH. destruct (path_eqb p q); reflexivity.
    + rewrite IH. destruct (path_eqb k q) eqn:E'; auto.
      apply path_eqb_eq in E'. subst k. now rewrite path_eqb_sym, E.
Qed.

Definition mirror_ok (m : mirror) : Prop := NoDup (map fst m).

Lemma mirror_set_keys : forall m p v k, In k (map fst (mirror_set m p v)) <-> k = p \/ In k (map fst m).
Proof.
  induction m as [|[k0 w] m IH]; intros p v k; cbn.
  - intuition.
  - destruct (path_eqb k0 p) eqn:E; cbn.
    + apply path_eqb_eq in E. subst. intuition.
    + rewrite IH. intuition.
Qed.

Lemma mirror_set_ok : forall m p v, mirror_ok m -> mirror_ok (mirror_set m p v).
Proof.
  unfold mirror_ok. induction m as [|[k0 w] m IH]; intros p v H; cbn.
  - repeat constructor. intros [].
  - cbn in H. inversion H as [|? ? Hk H']; subst.
    destruct (path_eqb k0 p) eqn:E; cbn.
    + now constructor.
    + constructor; auto. rewrite mirror_set_keys. intros [H1|H1]; [|contradiction].
      subst. now rewrite path_eqb_refl in E.
Qed.

Lemma mirror_get_in : forall m p v, mirror_ok m -> (mirror_get m p = Some v <-> In (p, v) m).
Proof.
  unfold mirror_ok. induction m as [|[k0 w] m IH]; intros p v H; cbn.
  - split; [discriminate|intros []].
  - cbn in H. inversion H as [|? ? Hk H']; subst.
    destruct (path_eqb k0 p) eqn:E.
    + apply path_eqb_eq in E. subst k0. split.
      * intros H1. inversion H1. now left.
      * intros [H1|H1]; [congruence|]. exfalso. apply Hk. apply in_map_iff. exists (p, v). auto.
    + rewrite IH by auto. split; [now right|]. intros [H1|H1]; auto.
      inversion H1; subst. now rewrite path_eqb_refl in E.
Qed.

Lemma mirror_get_filter : forall (f : path * payload -> bool) m p, mirror_ok m ->
  mirror_get (filter f m) p = match mirror_get m p with
                              | Some v => if f (p, v) then Some v else None
                              | None => None
                              end.
Proof.
  unfold mirror_ok. intros f. induction m as [|[k0 w] m IH]; intros p H; cbn; auto.
  cbn in H. inversion H as [|? ? Hk H']; subst.
  destruct (path_eqb k0 p) eqn:E.
  - apply path_eqb_eq in E. subst k0. destruct (f (p, w)) eqn:Ef; cbn.
    + now rewrite path_eqb_refl.
    + rewrite IH by auto. destruct (mirror_get m p) as [v|] eqn:Eg; auto.
      exfalso. apply Hk. apply mirror_get_in in Eg; auto. apply in_map_iff. exists (p, v). auto.
  - destruct (f (k0, w)); cbn; [rewrite E|]; now apply IH.
Qed.

Lemma filter_ok_mirror : forall (f : path * payload -> bool) m, mirror_ok m -> mirror_ok (filter f m).
Proof.
  unfold mirror_ok. intros f. induction m as [|[k0 w] m IH]; intros H; cbn; auto.
  cbn in H. inversion H as [|? ? Hk H']; subst.
  destruct (f (k0, w)); cbn; auto. constructor; auto.
  intros Hin. apply Hk. apply in_map_iff in Hin as [x [H1 H2]]. apply filter_In in H2 as [H2 _].
  rewrite <- H1. now apply in_map.
Qed.

Lemma mirror_remove_ok : forall m p, mirror_ok m -> mirror_ok (mirror_remove m p).
Proof. intros m p. apply filter_ok_mirror. Qed.

(* what a Message says about path p: Some (Some v) = set to v; Some None = removed; None = nothing *)
Fixpoint sets_lookup (l : list (path * list payload)) (p : path) : option payload :=
  match l with
  | [] => None
  | (q, vs) :: r =>
    match sets_lookup r p with
    | Some v => Some v
    | None => if path_eqb q p then (match rev vs with v :: _ => Some v | [] => None end) else None
    end
  end.

Definition di_lookup (d : ditems) (p : path) : option (option payload) :=
  match sets_lookup (di_sets d) p with
  | Some v => Some (Some v)
  | None => if existsb (path_eqb p) (di_removed d) then Some None else None
  end.

Lemma fold_remove_get : forall rs m q,
  mirror_get (fold_left mirror_remove rs m) q = if existsb (path_eqb q) rs then None else mirror_get m q.
Proof.
  induction rs as [|r rs IH]; intros m q; cbn; auto.
  rewrite IH, mirror_get_remove. rewrite (path_eqb_sym q r).
  destruct (path_eqb r q); cbn; auto. now destruct (existsb (path_eqb q) rs).
Qed.

Lemma fold_set_values_get : forall vs m p q,
  mirror_get (fold_left (fun m'' v => mirror_set m'' p v) vs m) q
  = match rev vs with
    | v :: _ => if path_eqb p q then Some v else mirror_get m q
    | [] => mirror_get m q
    end.
Proof.
  induction vs as [|v vs IH]; intros m p q; cbn [fold_left rev]; auto.
  rewrite IH. destruct (rev vs) as [|w ws] eqn:E; cbn.
  - rewrite mirror_get_set. reflexivity.
  - rewrite mirror_get_set. destruct (path_eqb p q); reflexivity.
Qed.

Lemma fold_sets_get : forall l m q,
  mirror_get (fold_left (fun m' pv => fold_left (fun m'' v => mirror_set m'' (fst pv) v) (snd pv) m') l m) q
  = match sets_lookup l q with Some v => Some v | None => mirror_get m q end.
Proof.
  induction l as [|[p vs] l IH]; intros m q; cbn [fold_left sets_lookup fst snd]; auto.
  rewrite IH. destruct (sets_lookup l q); auto.
  rewrite fold_set_values_get. destruct (rev vs); destruct (path_eqb p q); reflexivity.
Qed.

Theorem apply_di_get : forall m d q,
  mirror_get (apply_di m d) q = match di_lookup d q with Some r => r | None => mirror_get m q end.
Proof.
  intros m d q. unfold apply_di, di_lookup. rewrite fold_sets_get.
  destruct (sets_lookup (di_sets d) q); auto.
  rewrite fold_remove_get. destruct (existsb (path_eqb q) (di_removed d)); reflexivity.
Qed.

Lemma apply_di_ok : forall m d, mirror_ok m -> mirror_ok (apply_di m d).
Proof.
  intros m d H. unfold apply_di.
  assert (H1 : mirror_ok (fold_left mirror_remove (di_removed d) m)).
  { revert m H. induction (di_removed d) as [|r rs IH]; intros m H; cbn; auto. apply IH. now apply mirror_remove_ok. }
  revert H1. generalize (fold_left mirror_remove (di_removed d) m). clear.
  induction (di_sets d) as [|[p vs] l IH]; intros m H; cbn [fold_left]; auto.
  apply IH. cbn [fst snd]. revert m H. induction vs as [|v vs IHv]; intros m H; cbn; auto.
  apply IHv. now apply mirror_set_ok.
Qed.

Lemma apply_all_ok : forall ds m, mirror_ok m -> mirror_ok (apply_all m ds).
Proof.
  unfold apply_all. induction ds as [|d ds IH]; intros m H; cbn; auto. apply IH. now apply apply_di_ok.
Qed.

Definition di_ok (d : ditems) : Prop := NoDup (map fst (di_sets d)).

Lemma sets_add_names : forall l p v k, In k (map fst (sets_add l p v)) <-> k = p \/ In k (map fst l).
Proof.
  induction l as [|[k0 vs] l IH]; intros p v k; cbn.
  - intuition.
  - destruct (path_eqb k0 p) eqn:E; cbn.
    + apply path_eqb_eq in E. subst. intuition.
    + rewrite IH. intuition.
Qed.

Lemma sets_add_ok : forall l p v, NoDup (map fst l) -> NoDup (map fst (sets_add l p v)).
Proof.
  induction l as [|[k0 vs] l IH]; intros p v H; cbn.
  - repeat constructor. intros [].
  - cbn in H. inversion H as [|? ? Hk H']; subst.
    destruct (path_eqb k0 p) eqn:E; cbn.
    + now constructor.
    + constructor; auto. rewrite sets_add_names. intros [H1|H1]; [|contradiction].
      subst. now rewrite path_eqb_refl in E.
Qed.

Lemma sets_lookup_absent : forall l q, ~ In q (map fst l) -> sets_lookup l q = None.
Proof.
  induction l as [|[k vs] l IH]; intros q H; cbn; auto.
  rewrite IH by (intros H1; apply H; now right).
  destruct (path_eqb k q) eqn:E; auto. apply path_eqb_eq in E. subst. exfalso. apply H. now left.
Qed.

Lemma sets_lookup_add : forall l p v q, NoDup (map fst l) ->
  sets_lookup (sets_add l p v) q = if path_eqb p q then Some v else sets_lookup l q.
Proof.
  induction l as [|[k vs] l IH]; intros p v q Hnd; cbn [sets_add sets_lookup].
  - cbn. destruct (path_eqb p q); reflexivity.
  - cbn in Hnd. inversion Hnd as [|? ? Hk Hnd']; subst.
    destruct (path_eqb k p) eqn:E; cbn [sets_lookup].
    + apply path_eqb_eq in E. subst k.
      destruct (path_eqb p q) eqn:Epq.
      * apply path_eqb_eq in Epq. subst q. rewrite (sets_lookup_absent l p Hk).
        rewrite rev_app_distr. reflexivity.
      * reflexivity.
    + rewrite IH by auto. destruct (path_eqb p q) eqn:Epq; auto.
Qed.

Lemma sets_has_spec : forall l p, sets_has l p = true <-> In p (map fst l).
Proof.
  induction l as [|[k vs] l IH]; intros p; cbn; [split; [discriminate|intros []]|].
  rewrite orb_true_iff, IH, path_eqb_eq. intuition.
Qed.

Lemma di_add_set_ok : forall d p v, di_ok d -> di_ok (di_add_set d p v).
Proof. intros d p v H. unfold di_ok, di_add_set. cbn. now apply sets_add_ok. Qed.

Lemma di_add_removed_ok : forall d p, di_ok d -> di_ok (di_add_removed d p).
Proof. intros d p H. exact H. Qed.

Lemma empty_di_ok : di_ok empty_di.
Proof. constructor. Qed.

(* adding a set to a Message: the reader then sees the set applied after everything the Message said before *)
Lemma di_lookup_add_set : forall d p v q, di_ok d ->
  di_lookup (di_add_set d p v) q = if path_eqb p q then Some (Some v) else di_lookup d q.
Proof.
  intros d p v q H. unfold di_lookup, di_add_set. cbn [di_sets di_removed].
  rewrite sets_lookup_add by exact H. destruct (path_eqb p q); reflexivity.
Qed.

(* adding a removal, when the Message holds no set of that path *)
Lemma di_lookup_add_removed : forall d p q, di_has_set d p = false ->
  di_lookup (di_add_removed d p) q = if path_eqb p q then Some None else di_lookup d q.
Proof.
  intros d p q H. unfold di_lookup, di_add_removed. cbn [di_sets di_removed].
  rewrite existsb_app. cbn [existsb]. rewrite orb_false_r. rewrite (path_eqb_sym q p).
  destruct (path_eqb p q) eqn:E.
  - apply path_eqb_eq in E. subst q.
    assert (sets_lookup (di_sets d) p = None) as ->.
    { apply sets_lookup_absent. intros Hin. apply sets_has_spec in Hin. unfold di_has_set in H. congruence. }
    now rewrite orb_true_r.
  - rewrite orb_false_r. reflexivity.
Qed.
