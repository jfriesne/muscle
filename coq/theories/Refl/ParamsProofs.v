(* Refl/ParamsProofs.v -- lowering the commands a client sends (parameter names, Params.v) keeps every premise of
   mirror_converges_partial, so the theorem holds for histories as they are on the wire, without asking that a
   client unsubscribes under the spelling it subscribed with: mirror_converges_wire. *)
From Coq Require Import List NArith ZArith Bool Arith Lia.
From Muscle Require Import Refl.Base Refl.BaseProofs Refl.TreeProofs Refl.Session Refl.Server Refl.ServerProofs
     Refl.Mirror Refl.MirrorCmd Refl.MirrorFrame Refl.MirrorProofs Refl.MirrorCheck Refl.MirrorStale Refl.Params.
Import ListNotations.

Section ParamsProofs.
Context {M : MatchOps} {L : MatchLaws M}.

(* the BATCH case of lower_cmd, with a name *)
Fixpoint lower_list (nest : nat) (l : list cmd) (ps : pnames) : list cmd * pnames :=
  match l with
  | [] => ([], ps)
  | c' :: r => let '(c1, ps1) := lower_cmd nest ps c' in
               let '(r1, ps2) := lower_list nest r ps1 in (c1 :: r1, ps2)
  end.

Lemma lower_batch_eq : forall nest ps l,
  lower_cmd nest ps (CBatch l) =
  if Nat.ltb nest max_batch_nest
  then (CBatch (fst (lower_list (S nest) l ps)), snd (lower_list (S nest) l ps))
  else (CBatch l, ps).
Proof.
  intros nest ps l. cbn [lower_cmd]. destruct (Nat.ltb nest max_batch_nest); [|reflexivity].
  match goal with |- (let '(l', ps') := ?G l ps in _) = _ => assert (H : forall l0 ps0, G l0 ps0 = lower_list (S nest) l0 ps0) end.
  { induction l0 as [|c l0 IH]; intros ps0; cbn [lower_list]; [reflexivity|].
    destruct (lower_cmd (S nest) ps0 c) as [c1 ps1]. rewrite IH. reflexivity. }
  rewrite H. destruct (lower_list (S nest) l ps); reflexivity.
Qed.

Lemma lower_list_cons : forall nest c r ps,
  fst (lower_list nest (c :: r) ps) =
  fst (lower_cmd nest ps c) :: fst (lower_list nest r (snd (lower_cmd nest ps c))).
Proof.
  intros. cbn [lower_list]. destruct (lower_cmd nest ps c) as [c1 ps1]. cbn [fst snd].
  destruct (lower_list nest r ps1); reflexivity.
Qed.

Lemma lower_unsub_shape : forall nest ps subs, exists l, fst (lower_cmd nest ps (CUnsubscribe subs)) = CUnsubscribe l.
Proof. intros. cbn [lower_cmd]. destruct (lower_unsub ps subs) as [l ps']. now exists l. Qed.

(* lowering changes nothing but the lists of unsubscribes, inside BATCHes too: a function of commands that does not look
   at those lists, and on a BATCH only at its values on the members, does not see it *)
Lemma lower_cmd_keeps : forall (A : Type) (f : cmd -> A),
  (forall s l, f (CUnsubscribe l) = f (CUnsubscribe s)) ->
  (forall l l', Forall2 (fun c c' => f c' = f c) l l' -> f (CBatch l') = f (CBatch l)) ->
  forall c nest ps, f (fst (lower_cmd nest ps c)) = f c.
Proof.
  intros A f Hu Hb. induction c using cmd_ind'; intros nest ps; try reflexivity.
  - cbn [lower_cmd]. destruct (lower_unsub ps k); apply Hu.
  - rewrite lower_batch_eq. destruct (Nat.ltb nest max_batch_nest); [|reflexivity]. cbn [fst]. apply Hb.
    revert ps. induction H as [|c l Hc Hl IH]; intros ps; [constructor|]. rewrite lower_list_cons. constructor; [apply Hc|apply IH].
Qed.

Lemma forallb_Forall2 : forall (f : cmd -> bool) l l', Forall2 (fun c c' => f c' = f c) l l' -> forallb f l' = forallb f l.
Proof. intros f l l' H. induction H as [|c c' l l' Hc H IH]; cbn [forallb]; [reflexivity|]. now rewrite Hc, IH. Qed.

Lemma lower_cmd_budget : forall c nest ps, cmd_budget (fst (lower_cmd nest ps c)) = cmd_budget c.
Proof.
  apply lower_cmd_keeps; [reflexivity|]. intros l l' H. cbn [cmd_budget].
  induction H as [|c c' l l' Hc H IH]; [reflexivity|]. now rewrite Hc, IH.
Qed.

Lemma lower_cmd_loud : forall c own nest ps, cmd_loud_for own (fst (lower_cmd nest ps c)) = cmd_loud_for own c.
Proof. intros c own. revert c. apply lower_cmd_keeps; [reflexivity|]. intros l l'. apply forallb_Forall2. Qed.

Lemma lower_cmd_plain : forall c nest ps, cmd_plain (fst (lower_cmd nest ps c)) = cmd_plain c.
Proof. apply lower_cmd_keeps; [reflexivity|]. intros l l'. apply forallb_Forall2. Qed.

Lemma lower_cmd_depth : forall c nest ps, cmd_depth (fst (lower_cmd nest ps c)) = cmd_depth c.
Proof.
  apply lower_cmd_keeps; [reflexivity|]. intros l l' H. cbn [cmd_depth]. f_equal.
  induction H as [|c c' l l' Hc H IH]; [reflexivity|]. now rewrite Hc, IH.
Qed.

Lemma lower_cmd_subs_ok : forall c nest ps, cmd_subs_ok c -> cmd_subs_ok (fst (lower_cmd nest ps c)).
Proof.
  intros c nest ps H. rewrite (lower_cmd_keeps Prop cmd_subs_ok); [exact H|reflexivity|].
  intros l l' HF. cbn [cmd_subs_ok]. induction HF as [|x x' l l' Hx HF IH]; [reflexivity|]. now rewrite Hx, IH.
Qed.

Variable fx : fixes.
Hypothesis guard_on : fx_guard fx = true.
Hypothesis overlap_on : fx_overlap fx = true.
Hypothesis push_on : fx_push fx = true.

Lemma pworld_run_lower : forall evs pw,
  pw_world (pworld_run fx evs pw) = world_run fx (lower_run fx pw evs) (pw_world pw).
Proof.
  induction evs as [|ev evs IH]; intros pw; [reflexivity|].
  cbn [pworld_run fold_left lower_run world_run]. fold (pworld_run fx evs (pworld_step fx pw ev)). rewrite IH.
  fold (world_run fx (lower_run fx (pworld_step fx pw ev) evs)). f_equal.
  unfold pworld_step. destruct (lower_event pw ev) as [ev' t']. reflexivity.
Qed.

Lemma lower_event_budget : forall pw ev, ev_budget (fst (lower_event pw ev)) = ev_budget ev.
Proof.
  intros pw [s h n|s|s c]; cbn [lower_event].
  - destruct (get_session (w_srv (pw_world pw)) s); reflexivity.
  - reflexivity.
  - destruct (get_session (w_srv (pw_world pw)) s); [|reflexivity].
    pose proof (lower_cmd_budget c 0 (pt_get (pw_params pw) s)) as Hb.
    destruct (lower_cmd 0 (pt_get (pw_params pw) s) c) as [c' ps']. exact Hb.
Qed.

Lemma lower_run_budget : forall evs pw, run_budget (lower_run fx pw evs) = run_budget evs.
Proof.
  induction evs as [|ev evs IH]; intros pw; [reflexivity|].
  cbn [lower_run run_budget]. now rewrite lower_event_budget, IH.
Qed.

(* the condition on arrivals (fresh session directories), read along the run on the wire *)
Fixpoint wf_prun (pw : pworld) (evs : list event) : Prop :=
  match evs with
  | [] => True
  | ev :: r => wf_event (w_srv (pw_world pw)) ev /\ wf_prun (pworld_step fx pw ev) r
  end.

Lemma lower_event_wf : forall pw ev sv, wf_event sv ev -> wf_event sv (fst (lower_event pw ev)).
Proof.
  intros pw [s h n|s|s c] sv Hwf; cbn [lower_event].
  - destruct (get_session (w_srv (pw_world pw)) s); exact Hwf.
  - exact Hwf.
  - destruct (get_session (w_srv (pw_world pw)) s); [|exact Hwf].
    destruct (lower_cmd 0 (pt_get (pw_params pw) s) c); exact I.
Qed.

Lemma pworld_step_world : forall pw ev,
  pw_world (pworld_step fx pw ev) = world_step fx (pw_world pw) (fst (lower_event pw ev)).
Proof. intros. unfold pworld_step. destruct (lower_event pw ev); reflexivity. Qed.

Lemma wf_prun_lower : forall evs pw, wf_prun pw evs -> wf_wrun fx (pw_world pw) (lower_run fx pw evs).
Proof.
  induction evs as [|ev evs IH]; intros pw Hwf; [exact I|].
  destruct Hwf as [H1 H2]. cbn [lower_run wf_wrun]. split; [now apply lower_event_wf|].
  rewrite <- pworld_step_world. now apply IH.
Qed.

(* the conditions on quiet flags (ev_ok) and on the observer's own commands (ev_clean), read along the run on the wire:
   they are about what Server.v executes, i.e. about the lowered commands (a REMOVEPARAMETERS keeps the names that are
   parameters) *)
Fixpoint ok_prun (o : sid) (pw : pworld) (evs : list event) : Prop :=
  match evs with
  | [] => True
  | ev :: r => ev_ok o (pw_world pw) (fst (lower_event pw ev)) /\ ev_clean o (pw_world pw) (fst (lower_event pw ev))
               /\ ok_prun o (pworld_step fx pw ev) r
  end.

Lemma ok_prun_lower : forall evs pw o, ok_prun o pw evs -> ok_wrun fx o (pw_world pw) (lower_run fx pw evs).
Proof.
  induction evs as [|ev evs IH]; intros pw o H; [exact I|].
  destruct H as [H1 [H2 H3]]. cbn [lower_run ok_wrun]. split; [exact H1|split; [exact H2|]].
  rewrite <- pworld_step_world. now apply IH.
Qed.

Lemma lower_cmd_tail : forall c nest ps, tail_cmd (fst (lower_cmd nest ps c)) = tail_cmd c.
Proof. apply lower_cmd_keeps; [reflexivity|]. intros l l'. apply forallb_Forall2. Qed.

Lemma lower_cmd_subs_ok_b : forall c nest ps, cmd_subs_ok_b (fst (lower_cmd nest ps c)) = cmd_subs_ok_b c.
Proof. apply lower_cmd_keeps; [reflexivity|]. intros l l'. apply forallb_Forall2. Qed.

Lemma lower_cmd_nounsub : forall c nest ps, cmd_nounsub (fst (lower_cmd nest ps c)) = cmd_nounsub c.
Proof. apply lower_cmd_keeps; [reflexivity|]. intros l l'. apply forallb_Forall2. Qed.

Lemma lower_list_forallb_tail : forall l nest ps, forallb tail_cmd (fst (lower_list nest l ps)) = forallb tail_cmd l.
Proof.
  induction l as [|c l IH]; intros nest ps; [reflexivity|]. rewrite lower_list_cons. cbn [forallb]. now rewrite lower_cmd_tail, IH.
Qed.

Lemma lower_list_drop_plain : forall l nest ps,
  forallb tail_cmd (drop_b cmd_plain (fst (lower_list nest l ps))) = forallb tail_cmd (drop_b cmd_plain l).
Proof.
  induction l as [|c l IH]; intros nest ps; [reflexivity|]. rewrite lower_list_cons. cbn [drop_b]. rewrite lower_cmd_plain.
  destruct (cmd_plain c); [apply IH|]. cbn [forallb]. now rewrite lower_cmd_tail, lower_list_forallb_tail.
Qed.

Lemma lower_list_drop_tail : forall l nest ps,
  forallb tail_cmd (drop_b cmd_plain (drop_b tail_cmd (fst (lower_list nest l ps))))
  = forallb tail_cmd (drop_b cmd_plain (drop_b tail_cmd l)).
Proof.
  induction l as [|c l IH]; intros nest ps; [reflexivity|]. rewrite lower_list_cons. cbn [drop_b]. rewrite lower_cmd_tail.
  destruct (tail_cmd c); [apply IH|].
  rewrite <- lower_list_cons. apply lower_list_drop_plain.
Qed.

Lemma lower_cmd_batch_tail_b : forall c ps, batch_tail_b (fst (lower_cmd 0 ps c)) = batch_tail_b c.
Proof.
  intros c ps. destruct c as [| | | | | | |l]; try reflexivity.
  - cbn [lower_cmd]. destruct (lower_unsub ps subs); reflexivity.
  - pose proof (lower_cmd_nounsub (CBatch l) 0 ps) as Hu.
    rewrite lower_batch_eq in *. destruct (Nat.ltb 0 max_batch_nest); [|reflexivity]. cbn [fst] in *.
    unfold batch_tail_b. rewrite !client_flag, Hu. f_equal. apply lower_list_drop_tail.
Qed.

Lemma lower_event_ok_b : forall pw o ev, ev_ok_b o (fst (lower_event pw ev)) = ev_ok_b o ev.
Proof.
  intros pw o [s h n|s|s c]; cbn [lower_event].
  - destruct (get_session (w_srv (pw_world pw)) s); reflexivity.
  - reflexivity.
  - destruct (get_session (w_srv (pw_world pw)) s); [|reflexivity].
    pose proof (lower_cmd_loud c (N.eqb s o) 0 (pt_get (pw_params pw) s)) as H1.
    pose proof (lower_cmd_depth c 0 (pt_get (pw_params pw) s)) as H2.
    destruct (lower_cmd 0 (pt_get (pw_params pw) s) c) as [c' ps']. cbn [fst ev_ok_b] in *. now rewrite H1, H2.
Qed.

Lemma lower_event_clean_b : forall pw o ev, ev_clean_b o (fst (lower_event pw ev)) = ev_clean_b o ev.
Proof.
  intros pw o [s h n|s|s c]; cbn [lower_event].
  - destruct (get_session (w_srv (pw_world pw)) s); reflexivity.
  - reflexivity.
  - destruct (get_session (w_srv (pw_world pw)) s); [|reflexivity].
    pose proof (lower_cmd_plain c 0 (pt_get (pw_params pw) s)) as H1.
    pose proof (lower_cmd_subs_ok_b c 0 (pt_get (pw_params pw) s)) as H2.
    pose proof (lower_cmd_batch_tail_b c (pt_get (pw_params pw) s)) as H3.
    assert (H4 : is_unsub (fst (lower_cmd 0 (pt_get (pw_params pw) s) c)) = is_unsub c).
    { destruct c; try reflexivity.
      - cbn [lower_cmd]. destruct (lower_unsub (pt_get (pw_params pw) s) subs); reflexivity.
      - rewrite lower_batch_eq. destruct (Nat.ltb 0 max_batch_nest); reflexivity. }
    destruct (lower_cmd 0 (pt_get (pw_params pw) s) c) as [c' ps']. cbn [fst ev_clean_b] in *. now rewrite H1, H2, H3, H4.
Qed.

(* the state-free tests, made on the events as they are on the wire, imply the conditions on the lowered run *)
Lemma ok_prun_of_checks : forall o evs pw, forallb (ev_ok_b o) evs = true -> forallb (ev_clean_b o) evs = true ->
  ok_prun o pw evs.
Proof.
  intros o. induction evs as [|ev evs IH]; intros pw H H'; [exact I|]. cbn [forallb] in H, H'.
  apply andb_true_iff in H as [H1 H2]. apply andb_true_iff in H' as [H3 H4]. cbn [ok_prun].
  split; [apply ev_ok_b_one; now rewrite lower_event_ok_b|].
  split; [apply ev_clean_b_one; now rewrite lower_event_clean_b|now apply IH].
Qed.

(* mirror_converges_partial for histories as they are on the wire: REMOVEPARAMETERS works on parameter names *)
Theorem mirror_converges_wire : forall evs o,
  wf_prun empty_pworld evs -> ok_prun o empty_pworld evs -> small (run_budget evs) ->
  let w := pw_world (pworld_run fx evs empty_pworld) in
  forall c ss, In c (w_clients w) -> c_id c = o -> get_session (w_srv w) o = Some ss ->
  forall q, own_node ss q = false ->
  mirror_get (c_mirror c) q = expected (sv_tree (w_srv w)) ss q.
Proof.
  intros evs o Hwf Hok Hsm w. subst w. rewrite pworld_run_lower. cbn [empty_pworld pw_world].
  apply (mirror_converges_partial fx guard_on overlap_on push_on).
  - apply (wf_prun_lower evs empty_pworld Hwf).
  - apply (ok_prun_lower evs empty_pworld o Hok).
  - now rewrite lower_run_budget.
Qed.

(* mirror_converges_announced on the wire: the conditions are read off the lowered history (what Server.v executes) *)
Corollary mirror_converges_wire_announced : forall o evs,
  let evs' := lower_run fx empty_pworld evs in
  wf_wrun fx empty_world evs' -> oks_wrun fx o empty_world evs' -> small (run_budget evs') ->
  let w := pw_world (pworld_run fx evs empty_pworld) in
  forall c ss, In c (w_clients w) -> c_id c = o -> get_session (w_srv w) o = Some ss ->
  forall q, own_node ss q = false -> pmem q (stale_run fx o empty_world evs' []) = false ->
  mirror_get (c_mirror c) q = expected (sv_tree (w_srv w)) ss q.
Proof.
  intros o evs evs' Hwf Hok Hsm w. subst w. rewrite pworld_run_lower. cbn [empty_pworld pw_world]. fold evs'.
  now apply (mirror_converges_announced fx guard_on overlap_on push_on o evs').
Qed.

End ParamsProofs.
