(* Refl/MirrorSem.v -- one change notification (NotifySubscribersThatNodeChanged -> NodeChanged -> NodeChangedAux)
   read through the virtual mirrors: after it, every other session's virtual mirror holds at the changed path exactly
   what that session's subscriptions (paths and filters) select of the node.  Then the semantic invariant of a
   subscriber ("its virtual mirror holds, at every foreign path, exactly what its subscriptions select of the tree")
   and its preservation by one tree change with its notification. *)
From Coq Require Import List NArith ZArith Bool Arith Lia.
From Muscle Require Import Refl.Base Refl.BaseProofs Refl.Tree Refl.TreeProofs Refl.Matcher Refl.MatcherProofs
     Refl.Session Refl.Server Refl.ServerProofs Refl.Mirror Refl.MirrorServer.
Import ListNotations.

Section Notify.
Context {M : MatchOps} {L : MatchLaws M}.
Variable mir : mirror.

(* what subscriptions [subs] select of a node at p holding d (None: no node) *)
Definition exp_with (subs : matcher) (p : path) (d : option payload) : option payload :=
  match d with
  | Some v => if matches_path subs p (Some v) then Some v else None
  | None => None
  end.

Lemma expected_exp_with : forall t ss p,
  expected t ss p = exp_with (s_subs ss) p (option_map n_data (find_node t p)).
Proof. intros t ss p. unfold expected, exp_with. destruct (find_node t p); reflexivity. Qed.

(* the value NodeChanged leaves at the changed path in the told session's virtual mirror *)
Definition nc_result (subs : matcher) (p : path) (d : payload) (old : option payload) (r : bool) (cur : option payload)
  : option payload :=
  if N.ltb 0 (m_nfilters subs) then
    let before := matches_node subs p old 0 in
    if r then (if before then None else cur)
    else
      let now := matches_node subs p (Some d) 0 in
      match old with
      | Some _ => if now then Some d else if before then None else cur
      | None => if now then Some d else cur
      end
  else if r then None else Some d.

Lemma pend_ok_node_changed : forall sv s p d old r, pend_ok sv -> pend_ok (node_changed sv s p d old r).
Proof.
  intros sv s p d old r H. unfold node_changed. destruct (get_session sv s) as [ss|]; auto.
  destruct (N.ltb 0 (m_nfilters (s_subs ss))).
  - destruct r.
    + destruct (matches_node _ _ _ _); auto. now apply pend_ok_nca.
    + destruct old.
      * destruct (matches_node (s_subs ss) p (Some d) 0); [now apply pend_ok_nca|].
        destruct (matches_node _ _ _ _); auto. now apply pend_ok_nca.
      * destruct (matches_node (s_subs ss) p (Some d) 0); auto. now apply pend_ok_nca.
  - now apply pend_ok_nca.
Qed.

Lemma V_node_changed : forall sv s ss p d old r o q, pend_ok sv -> get_session sv s = Some ss ->
  V mir (node_changed sv s p d old r) o q
  = if N.eqb o s && path_eqb p q
    then Some (nc_result (s_subs ss) p d old r (mirror_get (vm mir ss) p))
    else V mir sv o q.
Proof.
  intros sv s ss p d old r o q Hpo Hss. unfold node_changed, nc_result. rewrite Hss.
  assert (Hex : exists x, get_session sv s = Some x) by eauto.
  assert (Hcur : N.eqb o s && path_eqb p q = true -> V mir sv o q = Some (mirror_get (vm mir ss) p)).
  { intros H. apply andb_true_iff in H as [H1 H2]. apply N.eqb_eq in H1. apply path_eqb_eq in H2. subst.
    unfold V. now rewrite Hss. }
  assert (Hnca : forall r', V mir (node_changed_aux sv s p d r') o q
                 = if N.eqb o s && path_eqb p q then Some (if r' then None else Some d) else V mir sv o q).
  { intros r'. rewrite (V_nca mir sv s p d r' o q Hpo Hex).
    destruct (N.eqb o s && path_eqb p q) eqn:E; auto.
    apply andb_true_iff in E as [E1 _]. apply N.eqb_eq in E1. subst o. now rewrite Hss. }
  destruct (N.ltb 0 (m_nfilters (s_subs ss))).
  - destruct r.
    + destruct (matches_node (s_subs ss) p old 0); [apply Hnca|].
      destruct (N.eqb o s && path_eqb p q) eqn:E; auto.
    + destruct old.
      * destruct (matches_node (s_subs ss) p (Some d) 0); [apply Hnca|].
        destruct (matches_node (s_subs ss) p (Some p0) 0); [apply Hnca|].
        destruct (N.eqb o s && path_eqb p q) eqn:E; auto.
      * destruct (matches_node (s_subs ss) p (Some d) 0); [apply Hnca|].
        destruct (N.eqb o s && path_eqb p q) eqn:E; auto.
  - apply Hnca.
Qed.

Lemma tbl_has_spec : forall tb o, tbl_has tb o = true <-> In o (map fst tb).
Proof.
  induction tb as [|[k c] tb IH]; intros o; cbn; [split; [discriminate|intros []]|].
  rewrite orb_true_iff, IH, N.eqb_eq. intuition.
Qed.

Lemma get_session_core_some : forall sv sv' o ss, same_core sv sv' -> get_session sv o = Some ss ->
  exists ss', get_session sv' o = Some ss' /\ s_subs ss' = s_subs ss.
Proof.
  intros sv sv' o ss Hc Hss. pose proof (get_session_core sv sv' o Hc) as H. rewrite Hss in H.
  destruct (get_session sv' o) as [ss'|]; [|contradiction]. exists ss'. split; auto.
  unfold core in H. congruence.
Qed.

Lemma notify_fold : forall (tb : subtbl) sv by_ p d old r,
  NoDup (map fst tb) -> pend_ok sv ->
  (forall k, In k (map fst tb) -> k <> by_ -> exists ss, get_session sv k = Some ss) ->
  let sv' := fold_left (fun sv' kc => if N.eqb (fst kc) by_ then sv' else node_changed sv' (fst kc) p d old r) tb sv in
  pend_ok sv' /\ same_core sv sv'
  /\ forall o q ss, get_session sv o = Some ss ->
       V mir sv' o q
       = if (tbl_has tb o && negb (N.eqb o by_)) && path_eqb p q
         then Some (nc_result (s_subs ss) p d old r (mirror_get (vm mir ss) p))
         else V mir sv o q.
Proof.
  induction tb as [|[k c] tb IH]; intros sv by_ p d old r Hnd Hpo Hex; cbn [fold_left].
  - split; [auto|split; [apply same_core_refl|]]. intros o q ss _. reflexivity.
  - cbn in Hnd. inversion Hnd as [|? ? Hk Hnd']; subst. cbn [fst].
    destruct (N.eqb k by_) eqn:Ekb.
    + apply N.eqb_eq in Ekb. subst k.
      destruct (IH sv by_ p d old r Hnd' Hpo) as [H1 [H2 H3]].
      { intros k' Hk' Hne. apply Hex; auto. now right. }
      split; [auto|split; [auto|]]. intros o q ss Hss. rewrite (H3 o q ss Hss). cbn [tbl_has].
      destruct (N.eqb by_ o) eqn:E; auto. apply N.eqb_eq in E. subst o. rewrite N.eqb_refl. cbn.
      now rewrite andb_false_r.
    + apply N.eqb_neq in Ekb.
      destruct (Hex k (or_introl eq_refl) Ekb) as [ssk Hssk].
      set (sv1 := node_changed sv k p d old r).
      assert (Hpo1 : pend_ok sv1) by (now apply pend_ok_node_changed).
      assert (Hc1 : same_core sv sv1) by apply node_changed_core.
      destruct (IH sv1 by_ p d old r Hnd' Hpo1) as [H1 [H2 H3]].
      { intros k' Hk' Hne. destruct (Hex k' (or_intror Hk') Hne) as [x Hx].
        destruct (get_session_core_some sv sv1 k' x Hc1 Hx) as [x' [Hx' _]]. eauto. }
      split; [auto|split; [eapply same_core_trans; eauto|]].
      intros o q ss Hss.
      destruct (get_session_core_some sv sv1 o ss Hc1 Hss) as [ss1 [Hss1 Hsub1]].
      rewrite (H3 o q ss1 Hss1). cbn [tbl_has]. rewrite Hsub1.
      destruct (N.eqb k o) eqn:Eko.
      * (* the subscriber just told: it is not told again *)
        apply N.eqb_eq in Eko. subst o.
        assert (tbl_has tb k = false) as ->.
        { destruct (tbl_has tb k) eqn:E; auto. apply tbl_has_spec in E. contradiction. }
        cbn [orb andb]. unfold sv1. rewrite (V_node_changed sv k ssk p d old r k q Hpo Hssk).
        rewrite N.eqb_refl. assert (ss = ssk) by congruence. subst ssk.
        apply N.eqb_neq in Ekb. rewrite Ekb. cbn [negb andb]. reflexivity.
      * cbn [orb].
        assert (Hsame : forall q', V mir sv1 o q' = V mir sv o q').
        { intros q'. unfold sv1. rewrite (V_node_changed sv k ssk p d old r o q' Hpo Hssk).
          rewrite (N.eqb_sym o k), Eko. reflexivity. }
        assert (Hvm : mirror_get (vm mir ss1) p = mirror_get (vm mir ss) p).
        { pose proof (Hsame p) as H. unfold V in H. rewrite Hss1, Hss in H. cbn in H. congruence. }
        rewrite Hvm, Hsame. reflexivity.
Qed.

Lemma V_notify_changed : forall sv by_ p d old r n o q ss,
  find_node (sv_tree sv) p = Some n -> NoDup (map fst (n_subs n)) -> pend_ok sv ->
  (forall k, In k (map fst (n_subs n)) -> k <> by_ -> exists x, get_session sv k = Some x) ->
  get_session sv o = Some ss ->
  V mir (notify_changed sv by_ p d old r) o q
  = if (tbl_has (n_subs n) o && negb (N.eqb o by_)) && path_eqb p q
    then Some (nc_result (s_subs ss) p d old r (mirror_get (vm mir ss) p))
    else V mir sv o q.
Proof.
  intros sv by_ p d old r n o q ss Hf Hnd Hpo Hex Hss. unfold notify_changed. rewrite Hf.
  destruct (notify_fold (n_subs n) sv by_ p d old r Hnd Hpo Hex) as [_ [_ H]]. now apply H.
Qed.

Lemma pend_ok_notify_changed : forall sv by_ p d old r, pend_ok sv -> pend_ok (notify_changed sv by_ p d old r).
Proof.
  intros sv by_ p d old r H. unfold notify_changed. destruct (find_node (sv_tree sv) p) as [n|]; auto.
  revert sv H. induction (n_subs n) as [|[k c] tb IH]; intros sv H; cbn [fold_left]; auto.
  apply IH. cbn [fst]. destruct (N.eqb k by_); auto. now apply pend_ok_node_changed.
Qed.

End Notify.

Section Sem.
Context {M : MatchOps} {L : MatchLaws M}.
Variable mir : mirror.

(* the invariant of observer o.  "Own" is the code's own notion (GetDataCallback: the name of the node's depth-2
   ancestor is the session's id string), which contains the session's subtree. *)
Definition J (sv : server) (o : sid) : Prop :=
  forall ss, get_session sv o = Some ss ->
  forall q, own_node ss q = false -> V mir sv o q = Some (expected (sv_tree sv) ss q).

Lemma own_node_of_prefix : forall (ss : session) p, is_prefix (session_dir ss) p = true -> own_node ss p = true.
Proof.
  intros ss p H. apply is_prefix_spec in H as [r Hr]. subst p. unfold session_dir, own_node. cbn.
  apply name_eqb_refl.
Qed.

Lemma foreign_outside : forall (ss : session) q, own_node ss q = false -> is_prefix (session_dir ss) q = false.
Proof.
  intros ss q H. destruct (is_prefix (session_dir ss) q) eqn:E; auto. apply own_node_of_prefix in E. congruence.
Qed.

Lemma count_pos_entry : forall m p, 0 < count_matching m p <-> exists e, In e (all_entries m) /\ pat_matches (e_pat e) p = true.
Proof.
  intros m p. unfold count_matching. split.
  - intros H. destruct (filter (fun e => pat_matches (e_pat e) p) (all_entries m)) as [|e l] eqn:E; [cbn in H; lia|].
    assert (He : In e (filter (fun e => pat_matches (e_pat e) p) (all_entries m))) by (rewrite E; now left).
    apply filter_In in He. eauto.
  - intros [e [H1 H2]].
    assert (He : In e (filter (fun e => pat_matches (e_pat e) p) (all_entries m))) by (apply filter_In; auto).
    destruct (filter (fun e => pat_matches (e_pat e) p) (all_entries m)); [contradiction|cbn; lia].
Qed.

Lemma no_count_no_match : forall m p d, wf_groups (m_groups m) -> count_matching m p = 0 -> matches_path m p d = false.
Proof.
  intros m p d Hw H. destruct (matches_path m p d) eqn:E; auto.
  apply matches_path_spec in E as [e [H1 [H2 _]]]; auto.
  assert (0 < count_matching m p) by (apply count_pos_entry; eauto). lia.
Qed.

Lemma nofilter_match : forall m p d, wf_matcher m -> N.ltb 0 (m_nfilters m) = false -> 0 < count_matching m p ->
  matches_path m p d = true.
Proof.
  intros m p d Hw Hn Hc. apply count_pos_entry in Hc as [e [H1 H2]].
  apply matches_path_spec; [apply Hw|]. exists e. split; [auto|split; [auto|]].
  rewrite (nfilters_zero m Hw Hn e H1). reflexivity.
Qed.

Lemma exp_with_nocount : forall m p d, wf_groups (m_groups m) -> count_matching m p = 0 -> exp_with m p d = None.
Proof. intros m p d Hw H. unfold exp_with. destruct d; auto. now rewrite no_count_no_match. Qed.

(* what the notification lemmas need of the state: the marks are right (refcount_inv), the subscription tables well formed *)
Definition marks_ok (sv : server) : Prop :=
  (forall n, In n (sv_tree sv) -> tbl_ok (n_subs n) /\ forall s, tbl_get (n_subs n) s = count_for sv s (n_path n))
  /\ (forall ss, In ss (sv_sessions sv) -> wf_matcher (s_subs ss)).

Lemma inv_marks_ok : forall B exc sv, inv_x B exc sv -> marks_ok sv.
Proof.
  intros B exc sv I. split; [apply (inv_marks _ _ _ I)|]. intros ss Hin. now destruct (inv_subs _ _ _ I ss Hin).
Qed.

Lemma session_wf : forall B exc sv o ss, inv_x B exc sv -> get_session sv o = Some ss -> wf_groups (m_groups (s_subs ss)).
Proof. intros B exc sv o ss I Hss. apply find_session_some in Hss as [Hin _]. now destruct (inv_subs _ _ _ I ss Hin) as [[Hw _] _]. Qed.

Section OneNotification.
Variable sv : server.
Hypothesis Hmk : marks_ok sv.
Hypothesis Hpo : pend_ok sv.
Variables (by_ : sid) (p : path) (n : node).
Hypothesis Hfind : find_node (sv_tree sv) p = Some n.

Lemma subscribers_exist : forall k, In k (map fst (n_subs n)) -> exists x, get_session sv k = Some x.
Proof.
  intros k Hk. apply find_node_some in Hfind as [Hin Hp].
  destruct (proj1 Hmk n Hin) as [Hok Hget].
  pose proof (tbl_in_get_pos _ _ Hok Hk) as Hpos. rewrite Hget in Hpos. unfold count_for in Hpos.
  destruct (get_session sv k); eauto. lia.
Qed.

Lemma subscribed_iff : forall o ss, get_session sv o = Some ss ->
  tbl_has (n_subs n) o = true <-> 0 < count_matching (s_subs ss) p.
Proof.
  intros o ss Hss. apply find_node_some in Hfind as [Hin Hp].
  destruct (proj1 Hmk n Hin) as [Hok Hget].
  specialize (Hget o). unfold count_for in Hget. rewrite Hss, Hp in Hget.
  rewrite tbl_has_spec. split.
  - intros H. pose proof (tbl_in_get_pos _ _ Hok H). lia.
  - intros H. apply tbl_get_pos_in. lia.
Qed.

Lemma V_notify_at : forall d old r o q ss, get_session sv o = Some ss ->
  V mir (notify_changed sv by_ p d old r) o q
  = if (tbl_has (n_subs n) o && negb (N.eqb o by_)) && path_eqb p q
    then Some (nc_result (s_subs ss) p d old r (mirror_get (vm mir ss) p))
    else V mir sv o q.
Proof.
  intros d old r o q ss Hss. apply (V_notify_changed mir sv by_ p d old r n o q ss); auto.
  - pose proof Hfind as Hf. apply find_node_some in Hf as [Hin _]. now destruct (proj1 Hmk n Hin) as [[H _] _].
  - intros k Hk _. now apply subscribers_exist.
Qed.

(* a node set or created (r = false), or about to be removed (r = true, old = its payload): the other sessions'
   virtual mirrors follow *)
Lemma notify_V : forall d old r o ss, o <> by_ -> get_session sv o = Some ss -> (r = true -> old = Some d) ->
  V mir sv o p = Some (exp_with (s_subs ss) p old) ->
  V mir (notify_changed sv by_ p d old r) o p = Some (if r then None else exp_with (s_subs ss) p (Some d)).
Proof.
  intros d old r o ss Hne Hss Hr Hpre. rewrite (V_notify_at d old r o p ss Hss).
  rewrite path_eqb_refl, andb_true_r. apply N.eqb_neq in Hne. rewrite Hne. cbn [negb]. rewrite andb_true_r.
  assert (Hin : In ss (sv_sessions sv)) by (apply find_session_some in Hss; tauto).
  pose proof (proj2 Hmk ss Hin) as Hw.
  assert (Hcur : mirror_get (vm mir ss) p = exp_with (s_subs ss) p old).
  { unfold V in Hpre. rewrite Hss in Hpre. cbn [option_map] in Hpre. now inversion Hpre. }
  destruct (tbl_has (n_subs n) o) eqn:Eh.
  - apply (subscribed_iff o ss Hss) in Eh. f_equal. unfold nc_result. rewrite Hcur.
    rewrite !matches_node_path by apply Hw.
    destruct (N.ltb 0 (m_nfilters (s_subs ss))) eqn:Enf.
    + destruct r; [rewrite (Hr eq_refl)|]; unfold exp_with.
      * destruct (matches_path (s_subs ss) p (Some d)); auto.
      * destruct old as [dold|]; destruct (matches_path (s_subs ss) p (Some d)); auto.
        destruct (matches_path (s_subs ss) p (Some dold)); auto.
    + destruct r; [reflexivity|]. unfold exp_with. now rewrite (nofilter_match (s_subs ss) p (Some d) Hw Enf Eh).
  - assert (Hc0 : count_matching (s_subs ss) p = 0).
    { destruct (count_matching (s_subs ss) p) eqn:Ec; auto.
      assert (tbl_has (n_subs n) o = true); [|congruence]. apply (subscribed_iff o ss Hss). lia. }
    rewrite Hpre, !exp_with_nocount by (auto; apply Hw). now destruct r.
Qed.

(* elsewhere nothing moves; and the notifying session itself is told nothing *)
Lemma notify_other_path : forall d old r o q ss, get_session sv o = Some ss -> q <> p ->
  V mir (notify_changed sv by_ p d old r) o q = V mir sv o q.
Proof.
  intros d old r o q ss Hss Hq. rewrite (V_notify_at d old r o q ss Hss).
  assert (path_eqb p q = false) as -> by (apply path_eqb_neq; congruence). now rewrite andb_false_r.
Qed.

Lemma notify_self : forall d old r q ss, get_session sv by_ = Some ss ->
  V mir (notify_changed sv by_ p d old r) by_ q = V mir sv by_ q.
Proof.
  intros d old r q ss Hss. rewrite (V_notify_at d old r by_ q ss Hss).
  rewrite N.eqb_refl. cbn [negb]. now rewrite andb_false_r.
Qed.

End OneNotification.

End Sem.
