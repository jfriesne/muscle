(* Refl/ParamsExamples.v -- the parameter-name layer (Params.v) on a concrete history: "SUBSCRIBE:ab" does not remove what
   "SUBSCRIBE:/*/*/ab" created, the same spelling does; and the premises of mirror_converges_wire are satisfiable. *)
From Coq Require Import List NArith ZArith Bool Arith Lia.
From Muscle Require Import Refl.Base Refl.Matcher Refl.Session Refl.Server Refl.RefcountProofs Refl.Mirror
     Refl.MirrorCheck Refl.Params Refl.ParamsProofs Refl.Concrete.
Import ListNotations.
Local Open Scope N_scope.

Definition exw : list event :=
  [ EAttach 0 1 10; EAttach 1 1 11;
    ECmd 1 (CSetData 0 [([21], 6)]);
    ECmd 0 (CSubscribe false [(Abs [CAny; CAny; CLit 21], None)]);      (* SUBSCRIBE:/*/*/ab *)
    ECmd 0 (CUnsubscribe [Rel [CLit 21]]) ].                             (* REMOVEPARAMETERS SUBSCRIBE:ab: no such parameter *)

Definition held (w : world) (o : sid) : option nat :=
  option_map (fun c => length (c_mirror c)) (find (fun c => N.eqb (c_id c) o) (w_clients w)).
Definition entries_of (w : world) (o : sid) : option nat :=
  option_map (fun ss => length (all_entries (s_subs ss))) (get_session (w_srv w) o).

Example wire_alias_unsubscribe_is_noop :
  (* on the wire: entry and mirror stay *)
  held (pw_world (pworld_run all_fixed exw empty_pworld)) 0 = Some 1%nat
  /\ entries_of (pw_world (pworld_run all_fixed exw empty_pworld)) 0 = Some 1%nat
  (* the same spelling removes them *)
  /\ held (pw_world (pworld_run all_fixed (exw ++ [ECmd 0 (CUnsubscribe [Abs [CAny; CAny; CLit 21]])]) empty_pworld)) 0 = Some 0%nat
  /\ entries_of (pw_world (pworld_run all_fixed (exw ++ [ECmd 0 (CUnsubscribe [Abs [CAny; CAny; CLit 21]])]) empty_pworld)) 0 = Some 0%nat
  (* the entry-level command would have removed them at once *)
  /\ held (world_run all_fixed exw empty_world) 0 = Some 0%nat.
Proof. vm_compute. repeat split; reflexivity. Qed.

(* the premises of mirror_converges_wire, in checkable form *)
Fixpoint wf_prun_b (fx : fixes) (pw : pworld) (evs : list event) : bool :=
  match evs with
  | [] => true
  | ev :: r => wf_event_b (w_srv (pw_world pw)) ev && wf_prun_b fx (pworld_step fx pw ev) r
  end.

Lemma wf_prun_b_spec : forall fx evs pw, wf_prun_b fx pw evs = true -> wf_prun fx pw evs.
Proof.
  induction evs as [|ev evs IH]; intros pw H; cbn [wf_prun_b wf_prun] in *; auto.
  apply andb_true_iff in H as [H1 H2]. split; [now apply wf_event_b_spec|now apply IH].
Qed.

Fixpoint ok_prun_b (fx : fixes) (o : sid) (pw : pworld) (evs : list event) : bool :=
  match evs with
  | [] => true
  | ev :: r => ev_ok_b o (fst (lower_event pw ev)) && ev_clean_b o (fst (lower_event pw ev)) && ok_prun_b fx o (pworld_step fx pw ev) r
  end.

Lemma ok_prun_b_spec : forall fx o evs pw, ok_prun_b fx o pw evs = true -> ok_prun fx o pw evs.
Proof.
  induction evs as [|ev evs IH]; intros pw H; [exact I|]. cbn [ok_prun_b ok_prun] in *.
  apply andb_true_iff in H as [H1 H2]. apply andb_true_iff in H1 as [H0 H1].
  split; [now apply ev_ok_b_one|split; [now apply ev_clean_b_one|now apply IH]].
Qed.

Example wire_premises_satisfiable :
  wf_prun_b all_fixed empty_pworld exw = true /\ ok_prun_b all_fixed 0 empty_pworld exw = true.
Proof. vm_compute. repeat split; reflexivity. Qed.
