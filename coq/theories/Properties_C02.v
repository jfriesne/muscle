(* C02 -- the property theorems, each closed by [exact] of a lemma proved elsewhere; at the end, examples by evaluation
   showing that the premise can be met and that the model parses real encodings.

   [unflatten_i bs fixed] is the instrumented model of Message::UnflattenFromBytes(bs, |bs|) on the repaired code
   (Msg/MsgInstr.v); it returns the parse result, the final reader and the log of raw buffer accesses, allocation
   requests, nesting depth and undefined bool loads.  [fits bs] : the buffer is shorter than 2^31 bytes (the uint32
   API cannot describe 2^32-1 or more, and SeekRelative() takes its uint32 argument as an int32). *)
From Coq Require Import List NArith Strings.Byte.
From Muscle Require Import Gen.Consts Msg.MsgDefs Msg.MsgInstr Msg.MsgInstrProofs Msg.MsgInstrRefuted Gw.RecvInstr Gw.GwRecvProofs.
Import ListNotations.
Local Open Scope N_scope.

(* every raw access of the parser to the received bytes lies inside the buffer, for every byte string *)
Theorem C02_parse_in_bounds : forall bs, fits bs ->
  Forall (in_bounds (len bs)) (accesses (unflatten_i bs fixed)).
Proof. exact parse_in_bounds_proof. Qed.
Print Assumptions C02_parse_in_bounds.

(* termination: fuel |bs|+1 is never exhausted (every loop turn consumes input, every nesting level costs input) *)
Theorem C02_parse_fuel : forall bs, fits bs -> result_of (unflatten_i bs fixed) <> Fuel.
Proof. exact parse_fuel_proof. Qed.
Print Assumptions C02_parse_fuel.

(* no deliberate abort (MCRASH) is reachable and no byte other than 0/1 is loaded into a bool *)
Theorem C02_parse_no_abort : forall bs, fits bs ->
  result_of (unflatten_i bs fixed) <> Crash /\ ub_events (unflatten_i bs fixed) = 0.
Proof. exact parse_no_abort_proof. Qed.
Print Assumptions C02_parse_no_abort.

(* recursion depth is linear in the input, never more: 28 bytes of input per nesting level (the stack itself is runtime: F5) *)
Theorem C02_parse_depth : forall bs, fits bs -> 28 * depth_reached (unflatten_i bs fixed) <= len bs.
Proof. exact parse_depth_proof. Qed.
Print Assumptions C02_parse_depth.

(* allocation is linear in the input: at most KA = 128 bytes of requests (in the model's units: sizeof-based object,
   table, queue and buffer requests) per byte of the buffer and nothing on top (the property asks for K * length + C:
   here K = KA and C = 0), whatever counts and lengths the bytes declare; where 128 comes from is said at KA *)
Theorem C02_parse_alloc_linear : forall bs, fits bs -> allocated (unflatten_i bs fixed) <= KA * len bs.
Proof. exact parse_alloc_linear_proof. Qed.
Print Assumptions C02_parse_alloc_linear.
Example C02_KA_is_128 : KA = 128.
Proof. reflexivity. Qed.

(* totality: the parse ends with a Message or with an error status, nothing else; and a Message that comes out is well
   shaped at every nesting level: every item has the kind and exact width its field's type code calls for (bools are
   0/1), strings and field names hold no NUL, what-codes and type codes are 32-bit values *)
Theorem C02_parse_total : forall bs, fits bs ->
  (exists m, result_of (unflatten_i bs fixed) = Ok m /\ shape_msg m) \/ result_of (unflatten_i bs fixed) = Err.
Proof. exact parse_total_proof. Qed.
Print Assumptions C02_parse_total.

(* the reader never ends beyond the buffer *)
Theorem C02_parse_consumed : forall bs, fits bs -> consumed (unflatten_i bs fixed) <= len bs.
Proof. exact parse_consumed_proof. Qed.
Print Assumptions C02_parse_consumed.

(* ---- MessageIOGateway receive machine (stream mode), repaired code: for every configured maximum, every Message parser
   (zlib included), every byte stream under every segmentation the run terminates, every Read() target range and the
   header memcpy lie inside the buffer written to, and no buffer request exceeds max(scratch, hs + min(maxIncoming, 2^32-1-hs));
   hs+bodySize is uint32 arithmetic in the model as in the C++ *)
Theorem C02_recv_sound : forall max_in unflat (segs : list bytes),
  exists s lg, feed true max_in unflat g_init glog0 segs = Some (s, lg) /\
    Forall write_ok (gl_writes lg) /\
    Forall (fun n => n <= N.max g_scratch (g_hs + N.min max_in (g_nolim - g_hs))) (gl_allocs lg).
Proof. exact recv_sound_proof. Qed.
Print Assumptions C02_recv_sound.

(* ---- the pinned code violates the property: one witness per finding (each was replayed on the real code) *)
Theorem C02_recv_refuted_F3 :
  exists s lg i mb, recv_turn false g_nolim (fun _ => false) g_init glog0 f3_header g_nolim = TGo s lg i mb /\
                    In (0, 0, g_hs) (gl_writes lg) /\ ~ write_ok (0, 0, g_hs).
Proof. exact recv_f3_refuted_proof. Qed.
Print Assumptions C02_recv_refuted_F3.
Theorem C02_recv_spins_F3 : feed false g_nolim (fun _ => false) g_init glog0 [f3_header] = None.
Proof. exact recv_f3_spins_proof. Qed.
Print Assumptions C02_recv_spins_F3.
Theorem C02_parse_alloc_linear_refuted_F1 :
  fits f1_witness /\ len f1_witness = 35 /\
  KA * len f1_witness < allocated (unflatten_i f1_witness (only_without false true true true true)).
Proof. exact parse_alloc_linear_refuted_F1. Qed.
Print Assumptions C02_parse_alloc_linear_refuted_F1.
Theorem C02_parse_alloc_linear_refuted_F42 :
  fits (nest_bomb 100) /\
  KA * len (nest_bomb 100) < allocated (unflatten_i (nest_bomb 100) (only_without true true false true true)).
Proof. exact parse_alloc_linear_refuted_F42. Qed.
Print Assumptions C02_parse_alloc_linear_refuted_F42.
Theorem C02_parse_no_ub_refuted_F43 :
  fits f43_witness /\ 0 < ub_events (unflatten_i f43_witness (only_without true true true false true)).
Proof. exact parse_no_ub_refuted_F43. Qed.
Print Assumptions C02_parse_no_ub_refuted_F43.
Theorem C02_parse_no_abort_refuted_F44 :
  fits f44_witness /\ len f44_witness = 26 /\
  result_of (unflatten_i f44_witness (only_without true true true true false)) = Crash.
Proof. exact parse_no_abort_refuted_F44. Qed.
Print Assumptions C02_parse_no_abort_refuted_F44.
Theorem C02_tmpl_parse_in_bounds_refuted_F2 :
  fits f2_witness /\ len f2_witness = 16 /\
  all_in_bounds (len f2_witness) (accesses (tunflatten_i f2_witness (only_without true false true true true) f2_template)) = false /\
  In (16, 4) (accesses (tunflatten_i f2_witness (only_without true false true true true) f2_template)).
Proof. exact tmpl_parse_in_bounds_refuted_F2. Qed.
Print Assumptions C02_tmpl_parse_in_bounds_refuted_F2.

(* non-vacuity: the premise holds for real encodings, and the model parses them: an empty Message with what-code 7,
   and a Message holding one int32 field "i" = 5 *)
Definition ex_empty : bytes := [x30;x30;x4d;x50; x07;x00;x00;x00; x00;x00;x00;x00].
Definition ex_int32 : bytes := [x30;x30;x4d;x50; x07;x00;x00;x00; x01;x00;x00;x00;
                                x02;x00;x00;x00; x69;x00; x47;x4e;x4f;x4c; x04;x00;x00;x00; x05;x00;x00;x00].
Example C02_fits_nonvacuous : fits ex_empty /\ fits ex_int32.
Proof. split; vm_compute; reflexivity. Qed.
Example C02_model_parses_empty : result_of (unflatten_i ex_empty fixed) = Ok (Msg 7 FNil).
Proof. vm_compute. reflexivity. Qed.
Example C02_model_parses_int32 :
  result_of (unflatten_i ex_int32 fixed) = Ok (Msg 7 (FCons [x69] c_B_INT32_TYPE (RInline (IFix [x05;x00;x00;x00])) FNil))
  /\ consumed (unflatten_i ex_int32 fixed) = 30 /\ depth_reached (unflatten_i ex_int32 fixed) = 0.
Proof. vm_compute. repeat split; reflexivity. Qed.
