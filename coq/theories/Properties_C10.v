(* C10 -- reference-counted and pooled objects are released exactly once, never early.
   Property theorems only: each is closed by [exact] of a lemma proved in Conc/. *)
From Coq Require Import List Arith Bool NArith.
From Muscle Require Import Gen.Consts Conc.Pool Conc.PoolProofs Conc.RefCnt Conc.RefInv Conc.RefActs Conc.RefProofs Conc.RefPool Conc.RefMore Conc.RefAcyc Conc.AtomicStep Conc.AtomicProofs.
Import ListNotations.

(* ---- the counting protocol: any number of threads, any programs, every reachable state ---- *)

Theorem C10_free_once_after_last : forall N K s0 s, inv1 K s0 -> progs_ok s0 -> reachable N K s0 s ->
  (forall o, o_cnt (hobj s o) + debts o s = units o s) /\
  (forall o, is_live (hobj s o) = false -> units o s = 0 /\ o_cnt (hobj s o) = 0) /\
  (forall t, t < length (s_thr s) -> bad124 (snd (step N K s t)) = false) /\
  (forall o, o < length (s_heap s) -> o_births (hobj s o) = o_deaths (hobj s o) + (if is_live (hobj s o) then 1 else 0)).
Proof. exact free_once_after_last. Qed.
Print Assumptions C10_free_once_after_last.

Theorem C10_never_early : forall N K s0 s, inv1 K s0 -> progs_ok s0 -> reachable N K s0 s ->
  forall o, slots o s <= o_cnt (hobj s o) /\ (1 <= slots o s -> is_live (hobj s o) = true).
Proof. exact never_early. Qed.
Print Assumptions C10_never_early.

Theorem C10_step_preserves : forall N K s t, inv1 K s -> progs_ok s -> t < length (s_thr s) ->
  inv1 K (fst (step N K s t)) /\ progs_ok (fst (step N K s t)) /\ bad124 (snd (step N K s t)) = false.
Proof. exact step_inv1. Qed.
Print Assumptions C10_step_preserves.

Theorem C10_initial_state : forall K max stksize progs, inv1 K (init_state max stksize progs).
Proof. exact init_inv1. Qed.
Print Assumptions C10_initial_state.

Theorem C10_no_schedule_violates : forall N K sched s, inv1 K s -> progs_ok s ->
  Forall (fun t => t < length (s_thr s)) sched ->
  forallb (fun e => negb (bad124 e)) (snd (run_sched N K s sched)) = true.
Proof. exact run_sched_safe. Qed.
Print Assumptions C10_no_schedule_violates.

(* the order of the unrepaired ConstRef::SetRef (release old, store, retain new) violates the
   property already single-threaded (finding F11; the witness is the corpus case) *)
Theorem C10_old_order_refuted :
  exists sched, existsb ev_is_bad (snd (run_sched 1 2 (init_state 0 4 [f11_prog false]) sched)) = true.
Proof. exact old_order_refuted. Qed.
Print Assumptions C10_old_order_refuted.

(* ---- the pool's bookkeeping: each critical section preserves the invariant ---- *)

Theorem C10_pool_obtain : forall N hlen p, 1 <= N -> pool_wf N hlen p ->
  let '(p', o, cr) := pool_obtain N hlen p in obtain_spec N hlen p p' o cr.
Proof. exact pool_obtain_spec. Qed.
Print Assumptions C10_pool_obtain.

Theorem C10_pool_release : forall N hlen p o, 1 <= N -> pool_wf N hlen p -> pused N (p_slabs p) o ->
  let '(p', del) := pool_release N p o in release_spec N hlen p p' o del.
Proof. exact pool_release_spec. Qed.
Print Assumptions C10_pool_release.

Theorem C10_pool_drain : forall N hlen p, 1 <= N -> pool_wf N hlen p ->
  let '(p', dels) := pool_drain N p in drain_spec N hlen p p' dels.
Proof. exact pool_drain_spec. Qed.
Print Assumptions C10_pool_drain.

Theorem C10_pool_sanity : forall N hlen p, pool_wf N hlen p ->
  p_cur p = free_total N (p_slabs p) /\
  Forall (fun s => length (sl_next s) = N /\ sl_inuse s <= N /\
                   length (free_nodes N s) = N - sl_inuse s /\ NoDup (free_nodes N s) /\
                   (forall i, In i (free_nodes N s) -> i < N)) (p_slabs p).
Proof. exact pool_wf_sanity. Qed.
Print Assumptions C10_pool_sanity.

Theorem C10_slab_created_only_when_exhausted : forall N hlen p p' o sn, 1 <= N -> pool_wf N hlen p ->
  pool_obtain N hlen p = (p', o, Some sn) -> p_cur p = 0.
Proof. exact obtain_creates_only_when_exhausted. Qed.
Print Assumptions C10_slab_created_only_when_exhausted.

(* once the count has reached zero, exactly one thread is carrying out the release *)
Theorem C10_release_in_progress : forall N K s0 s o, inv1 K s0 -> progs_ok s0 -> reachable N K s0 s ->
  is_releasing (hobj s o) = true ->
  exists t n, t < length (s_thr s) /\ In (ARel o n) (t_todo (thr s t)) /\
              forall u m, u < length (s_thr s) -> In (ARel o m) (t_todo (thr s u)) -> u = t.
Proof. exact release_in_progress. Qed.
Print Assumptions C10_release_in_progress.

Theorem C10_releasing_is_unreferenced : forall N K s0 s o, inv1 K s0 -> progs_ok s0 -> reachable N K s0 s ->
  is_releasing (hobj s o) = true -> o_cnt (hobj s o) = 0 /\ units o s = 0 /\ debts o s = 0.
Proof. exact releasing_is_unreferenced. Qed.
Print Assumptions C10_releasing_is_unreferenced.

(* a created / obtained object before its first increment has exactly one owner *)
Theorem C10_fresh_single_owner : forall N K s0 s t o, inv1 K s0 -> progs_ok s0 -> reachable N K s0 s ->
  t < length (s_thr s) -> In (AInc o None) (t_todo (thr s t)) ->
  is_live (hobj s o) = true /\ o_cnt (hobj s o) = 0 /\ units o s = 1 /\ slots o s = 0 /\
  forall u, u < length (s_thr s) -> u <> t -> thr_units o (thr s u) = 0.
Proof. exact fresh_single_owner. Qed.
Print Assumptions C10_fresh_single_owner.

(* ---- the premise of all schedule theorems, tied to the source: AtomicCounter's increment / decrement-and-test in the branch
   compiled here are ONE read-modify-write on a std::atomic whose returned value decides the answer (translator flags
   c_c10_inc_single_rmw, c_c10_dec_single_rmw, c_c10_count_is_std_atomic, re-evaluated on every run); the model's decrement step is
   exactly that step; with it, of n threads dropping the last n references exactly one is told "zero" ---- *)
Theorem C10_atomic_premise_tied :
  code_atomic_ok = true /\
  (forall h q h' z, dec_obj h q = Some (h', z) ->
     o_cnt (get_obj h' q) = o_cnt (get_obj h q) - 1 /\ z = (o_cnt (get_obj h q) - 1 =? 0)) /\
  (forall n, 1 <= n -> zeros (run_rmw n n) = 1).
Proof. exact atomic_premise_tied. Qed.
Print Assumptions C10_atomic_premise_tied.

(* a decrement split into "subtract" and a separate "load" violates the property with two threads: both are told "zero" *)
Theorem C10_split_decrement_refuted :
  exists sched, snd (run_split 2 [(0, false); (0, false)] sched) = [(2, true); (2, true)].
Proof. exact split_refuted. Qed.
Print Assumptions C10_split_decrement_refuted.

(* ---- no leaks: the reference graph stays acyclic, and an acyclic graph cannot keep itself alive ---- *)

Theorem C10_acyclic_reachable : forall N K s0 s, inv1 K s0 -> progs_ok s0 -> acyclic s0 -> reachable N K s0 s -> acyclic s.
Proof. exact reachable_acyclic. Qed.
Print Assumptions C10_acyclic_reachable.

Theorem C10_leak_free : forall K s, inv1 K s -> acyclic s -> quiescent s ->
  (forall o, is_live (hobj s o) = true -> 1 <= o_cnt (hobj s o)) ->
  forall o, is_live (hobj s o) = false.
Proof. exact leak_free. Qed.
Print Assumptions C10_leak_free.

Theorem C10_no_leak : forall N K max stksize progs s, progs_ok (init_state max stksize progs) ->
  reachable N K (init_state max stksize progs) s -> quiescent s ->
  (forall o, is_live (hobj s o) = true -> 1 <= o_cnt (hobj s o)) ->
  forall o, is_live (hobj s o) = false.
Proof. exact no_leak. Qed.
Print Assumptions C10_no_leak.

Theorem C10_fork_preserves_acyclic : forall s progs, acyclic s -> acyclic (fork_state s progs).
Proof. exact fork_acyclic. Qed.
Print Assumptions C10_fork_preserves_acyclic.

(* ---- heap states and pool bookkeeping together, in every reachable state ---- *)

Theorem C10_pool_inv : forall N K s0 s, 1 <= N -> inv1 K s0 -> plink N s0 -> progs_ok s0 -> reachable N K s0 s ->
  plink N s /\ (forall t, t < length (s_thr s) -> bad56 (snd (step N K s t)) = false).
Proof. exact pool_inv. Qed.
Print Assumptions C10_pool_inv.

Theorem C10_obtain_fresh : forall N K s0 s x, 1 <= N -> inv1 K s0 -> plink N s0 -> progs_ok s0 -> reachable N K s0 s ->
  pfree N (p_slabs (s_pool s)) x ->
  o_st (hobj s x) = Pooled /\ is_default (hobj s x) = true /\ units x s = 0.
Proof. exact obtain_fresh. Qed.
Print Assumptions C10_obtain_fresh.

Theorem C10_slab_delete_safe : forall N K s0 s t sd x, 1 <= N -> inv1 K s0 -> plink N s0 -> progs_ok s0 -> reachable N K s0 s ->
  t < length (s_thr s) -> In (ASlabDel sd) (t_todo (thr s t)) -> owns N sd x = true ->
  o_st (hobj s x) = Pooled /\ units x s = 0 /\ ~ owned_by N (p_slabs (s_pool s)) x.
Proof. exact slab_delete_safe. Qed.
Print Assumptions C10_slab_delete_safe.

Theorem C10_initial_pool_link : forall N max stksize progs, plink N (init_state max stksize progs).
Proof. exact init_plink. Qed.
Print Assumptions C10_initial_pool_link.

(* thread creation (the parent hands each new thread a copy of its references) preserves the invariant *)
Theorem C10_fork_preserves : forall K s progs, inv1 K s -> 0 < length (s_thr s) -> t_todo (thr s 0) = [] ->
  inv1 K (fork_state s progs).
Proof. exact fork_inv1. Qed.
Print Assumptions C10_fork_preserves.

Theorem C10_fork_preserves_pool_link : forall N s progs, plink N s -> plink N (fork_state s progs).
Proof. exact fork_plink. Qed.
Print Assumptions C10_fork_preserves_pool_link.

(* INVALID_NODE_INDEX (written [None] in the model) can never be a valid node index, for the constants
   translated from util/ObjectPool.h *)
Theorem C10_valid_index_not_invalid : forall N i, (N.of_nat N <= c_pool_max_objects_per_slab)%N -> i < N ->
  N.of_nat i <> (2 ^ c_pool_node_index_bits - 1)%N.
Proof. exact valid_index_not_invalid. Qed.
Print Assumptions C10_valid_index_not_invalid.

(* ---- non-vacuity ---- *)

Example C10_demo_reachable :
  let s0 := init_state 1 4 demo_progs in
  let s := fst (run_sched 2 2 s0 demo_sched) in
  inv1 2 s0 /\ progs_ok s0 /\ reachable 2 2 s0 s /\
  2 <= length (s_heap s) /\ o_cnt (hobj s 1) = 2 /\ existsb (fun ob => 1 <=? o_deaths ob) (s_heap s) = true.
Proof. exact demo_reachable. Qed.

Example C10_leak_demo :
  let s0 := init_state 0 4 [leak_demo_prog] in
  let s := fst (run_sched 2 2 s0 (repeat 0 60)) in
  progs_ok s0 /\ reachable 2 2 s0 s /\ quiescent s /\ 3 <= length (s_heap s) /\
  forallb (fun ob => negb (is_live ob)) (s_heap s) = true.
Proof. exact leak_demo. Qed.

Example C10_repaired_order_fine :
  existsb ev_is_bad (snd (run_sched 1 2 (init_state 0 4 [f11_prog true]) (repeat 0 40))) = false.
Proof. exact repaired_order_same_history_fine. Qed.

Example C10_empty_pool_wf : forall N hlen max, pool_wf N hlen (empty_pool max).
Proof. exact empty_pool_wf. Qed.
