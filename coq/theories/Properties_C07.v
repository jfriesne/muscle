(* C07 -- property theorems only: each is closed by [exact] of a lemma proved elsewhere
   (Refl/Bounded*.v, Refl/DispatchProofs.v).  Model: Refl/Bounded.v over the shared server model Refl/Server.v;
   the fuel-free meanings and the size measures are in Refl/BoundedSpec.v.  [MatchOps] (clause matching, query
   filters: external code) is a parameter of every statement: the theorems hold for any matcher and any filter. *)
From Coq Require Import List NArith ZArith.
From Muscle Require Import Refl.Base Refl.Matcher Refl.Session Refl.Server Refl.Bounded Refl.BoundedSpec
  Refl.BoundedProofs Refl.BoundedRefuted Refl.BoundedServe Refl.BoundedLoops Refl.BoundedCost Refl.BoundedPoly
  Refl.Tree Refl.Traverse Refl.Dispatch Refl.DispatchProofs Gen.Consts.
Import ListNotations.

(* JettisonOutgoingResults (repaired loop, RemoveData(name, j)): for every queue and every matcher it returns as soon as
   the fuel exceeds the weight of the heaviest queued Message, and removes exactly what the matcher accepts. *)
Theorem C07_jettison_results_fuel : forall (M : MatchOps) (om : option matcher) (fuel : nat) (q : list omsg),
  qweight q < fuel -> jettison_results true om fuel q = Some (jq_spec om q).
Proof. exact (fun M om fuel q => proj1 (jettison_results_returns om fuel q)). Qed.
Print Assumptions C07_jettison_results_fuel.

(* PushSubscriptionMessages' while-dirty loop runs at most twice *)
Theorem C07_push_loop_fuel : forall (M : MatchOps) (fuel : nat) (sv : server),
  2 <= fuel -> push_loop fuel sv = Some (push_all sv).
Proof. exact @push_loop_spec. Qed.
Print Assumptions C07_push_loop_fuel.

(* handler_fuel, first half: MessageReceivedFromGateway returns for EVERY command (any nesting of batches) in EVERY state with
   fuel linear in the heaviest outgoing Message a jettison pass meets while the handler runs ([hpeak]); it computes
   [bhandle_spec].  The second half, C07_handler_fuel below, bounds [hpeak] by a polynomial in the state and the command. *)
Theorem C07_handler_fuel_peak : forall (M : MatchOps) (fx : fixes) (c : bcmd) (fuel nest : nat) (b : bserver) (s : sid),
  2 <= fuel -> hpeak fx nest b s c < fuel ->
  bhandle fx true fuel nest b s c = Some (bhandle_spec fx nest b s c).
Proof. exact @handler_fuel. Qed.
Print Assumptions C07_handler_fuel_peak.

(* handler_fuel (DESIGN 6, C07: "every handler returns within poly(size state + size msg) steps"): in every state with
   distinct session ids and distinct node paths ([good_sv], an invariant of the reachable states, kept by every command:
   C07_good_sv_cmd), for EVERY command of size z = [bsize c] (path clauses + keys + subscriptions + sub-commands), with NT
   nodes, node weight SZ (nodes + subscriber-table entries), NS sessions and tw items already held in DATAITEMS Messages,
   fuel above  max(heaviest Message queued for the session, tw + z*(SZ + z*(NT+z+NS+1) + NT + 2*NS + 1))  is adequate:
   every loop instance of the handler iterates at most that often.  (Cost accounting, Refl/BoundedCost.v: one item per
   NodeChangedAux / GetDataCallback call; a traversal calls back at most once per node.) *)
Theorem C07_handler_fuel : forall (M : MatchOps) (fx : fixes) (c : bcmd) (fuel nest : nat) (b : bserver) (s : sid),
  good_sv (b_sv b) -> 2 <= fuel ->
  Nat.max (qweight (queue_of b s))
          (tw (b_sv b) + Gf (bsize c) (length (sv_tree (b_sv b))) (SZ (sv_tree (b_sv b))) (NS (b_sv b))) < fuel ->
  bhandle fx true fuel nest b s c = Some (bhandle_spec fx nest b s c).
Proof.
  exact (fun M fx c fuel nest b s Hg H2 Hf =>
           handler_fuel fx c fuel nest b s H2 (Nat.le_lt_trans _ _ _ (hpeak_poly fx c nest b s Hg) Hf)).
Qed.
Print Assumptions C07_handler_fuel.

Theorem C07_hpeak_poly : forall (M : MatchOps) (fx : fixes) (c : bcmd) (nest : nat) (b : bserver) (s : sid),
  good_sv (b_sv b) ->
  hpeak fx nest b s c <=
  Nat.max (qweight (queue_of b s))
          (tw (b_sv b) + Gf (bsize c) (length (sv_tree (b_sv b))) (SZ (sv_tree (b_sv b))) (NS (b_sv b))).
Proof. exact @hpeak_poly. Qed.
Print Assumptions C07_hpeak_poly.

Theorem C07_good_sv_cmd : forall (M : MatchOps) (fx : fixes) (b : bserver) (s : sid) (c : bcmd),
  good_sv (b_sv b) -> good_sv (b_sv (bstep_spec fx b (BCmd s c))).
Proof. exact @good_sv_cmd. Qed.
Print Assumptions C07_good_sv_cmd.

(* a traversal calls its callback at most once per node: any measure one call raises by at most 1 grows by at most |tree| *)
Theorem C07_traversal_calls : forall (M : MatchOps) (A : Type) (cb : A -> node -> A * Z) (mu : A -> nat) (Q : A -> Prop),
  (forall acc n, Q acc -> Q (fst (cb acc n)) /\ mu (fst (cb acc n)) <= mu acc + 1) ->
  forall t m root uf gf acc, NoDup (map n_path t) -> Q acc ->
  Q (do_traversal cb t m root uf gf acc) /\ mu (do_traversal cb t m root uf gf acc) <= mu acc + length t.
Proof. exact @do_traversal_cost. Qed.
Print Assumptions C07_traversal_calls.

Example C07_good_sv_satisfiable : @good_sv tiny_ops (@b_sv tiny_ops w_state).
Proof. exact w_good. Qed.

Theorem C07_handler_returns : forall (M : MatchOps) (fx : fixes) (c : bcmd) (nest : nat) (b : bserver) (s : sid),
  exists fuel0, forall fuel, fuel0 <= fuel -> exists b', bhandle fx true fuel nest b s c = Some b'.
Proof. exact @handler_returns. Qed.
Print Assumptions C07_handler_returns.

(* server_step_total: one turn of the event loop (a session arrives, leaves, stops/resumes reading, or one Message of any
   modelled kind is dispatched and the subscription updates are pushed) returns in every state; so does every history. *)
Theorem C07_server_step_total : forall (M : MatchOps) (fx : fixes) (fuel : nat) (b : bserver) (ev : bevent),
  2 <= fuel -> speak fx b ev < fuel -> bstep fx true fuel b ev = Some (bstep_spec fx b ev).
Proof. exact @server_step_total. Qed.
Print Assumptions C07_server_step_total.

Theorem C07_server_run_total : forall (M : MatchOps) (fx : fixes) (fuel : nat) (evs : list bevent) (b : bserver),
  2 <= fuel -> rpeak fx evs b < fuel -> brun fx true fuel evs b = Some (brun_spec fx evs b).
Proof. exact @server_run_total. Qed.
Print Assumptions C07_server_run_total.

(* the same for the sources the check runs on: [code_jfix] / [code_fixes] are computed from regenerated flags; if the loop
   regresses to the queue index, [code_jfix] is false and this theorem no longer checks *)
Theorem C07_code_run_total : forall (M : MatchOps) (fuel : nat) (evs : list bevent) (b : bserver),
  2 <= fuel -> rpeak code_fixes evs b < fuel ->
  brun code_fixes code_jfix fuel evs b = Some (brun_spec code_fixes evs b).
Proof. exact @code_run_total. Qed.
Print Assumptions C07_code_run_total.

(* NodeChangedAux written on fuel with its nest counter (cap c_max_node_changed_aux_nest_count) IS the structural
   definition of the shared model: the "flush, then start again" recursion nests exactly once, the cap is never reached *)
Theorem C07_node_changed_aux_fuel : forall (M : MatchOps) (fuel nest : nat) (sv : server) (s : sid) (p : path) (d : payload) (removed : bool),
  3 <= fuel -> nest < max_nca_nest ->
  nca_rec fuel nest sv s p d removed = Some (node_changed_aux sv s p d removed).
Proof. exact @nca_rec_spec. Qed.
Print Assumptions C07_node_changed_aux_fuel.

(* DataNode::RemoveChild(key, notify, recurse): `while(HasChildren()) RemoveChild(first)` returns within fuel linear in the
   number of nodes; afterwards the node is gone and no node was added *)
Theorem C07_remove_child_fuel : forall (M : MatchOps) (by_ : sid) (notify : bool) (sv : server) (p : path) (fuel : nat),
  2 * length (sv_tree sv) + 2 <= fuel ->
  exists sv', remove_rec (leave_node by_ notify) fuel sv p = Some sv' /\
              find_node (sv_tree sv') p = None /\ length (sv_tree sv') <= length (sv_tree sv).
Proof. exact @remove_child_fuel. Qed.
Print Assumptions C07_remove_child_fuel.

(* NodePathMatcher::DoTraversalAux: the fuel the shared model gives it (clause levels + 1) is adequate -- any larger
   amount gives the same result, for every callback, tree, pattern set and starting node *)
Theorem C07_traversal_fuel : forall (M : MatchOps) (A : Type) (cb : A -> node -> A * Z) t m root uf gf acc extra,
  do_traversal cb t m root uf gf acc =
  fst (trav A cb t m (length root) uf gf (S (max_clauses m) + extra) root acc).
Proof. exact @do_traversal_fuel. Qed.
Print Assumptions C07_traversal_fuel.

(* the what-code dispatch over the regenerated constants: every code of the command range reaches a modelled handler
   (unknown codes are bounced), except three named commands; codes outside the range are never dispatched to a handler *)
Theorem C07_dispatch_range_modelled : forall what,
  in_command_range what = true -> modelled (dispatch what) = true \/ In what unmodelled_commands.
Proof. exact dispatch_range_modelled. Qed.
Print Assumptions C07_dispatch_range_modelled.

Theorem C07_case_labels_reached : forall k h, In (k, h) case_labels -> dispatch k = h.
Proof. exact case_labels_reached. Qed.
Print Assumptions C07_case_labels_reached.

(* THE PROPERTY in model form.  For every state in which client w is attached and reading, and every finite history of
   events of OTHER sessions -- any modelled command with any patterns and filters, batches of any nesting, sessions
   arriving and leaving, clients that stop reading while their replies pile up -- w is still attached and reading
   afterwards and its PING is answered (PONG delivered) in the very event-loop turn that dispatches it. *)
Theorem C07_witness_ping_answered : forall (M : MatchOps) (fx : fixes) (evs : list bevent) (b : bserver) (w : sid) (t : N),
  serving b w -> (forall ev, In ev evs -> ev_sid ev <> w) ->
  serving (brun_spec fx evs b) w /\
  delivered (bstep_spec fx (brun_spec fx evs b) (BCmd w (BPing t))) w (OPong t).
Proof. exact @witness_ping_answered. Qed.
Print Assumptions C07_witness_ping_answered.

(* ... and on the fuelled semantics (the loops as the code writes them): the whole history followed by the ping returns
   as soon as the fuel exceeds the heaviest queued Message any jettison pass meets, and the PONG is delivered. *)
Theorem C07_witness_ping_answered_fuel : forall (M : MatchOps) (fx : fixes) (fuel : nat) (evs : list bevent) (b : bserver) (w : sid) (t : N),
  serving b w -> (forall ev, In ev evs -> ev_sid ev <> w) ->
  2 <= fuel -> rpeak fx (evs ++ [BCmd w (BPing t)]) b < fuel ->
  exists b', brun fx true fuel (evs ++ [BCmd w (BPing t)]) b = Some b' /\ delivered b' w (OPong t).
Proof. exact @witness_ping_answered_fuel. Qed.
Print Assumptions C07_witness_ping_answered_fuel.

(* the fuelled semantics (repaired loop) is a partial function of its meaning: for ANY amount of fuel, a history that
   returns at all returns [brun_spec]; running out of fuel is the only way to differ *)
Theorem C07_fuelled_run_is_meaning : forall (M : MatchOps) (fx : fixes) (fuel : nat) (evs : list bevent) (b b' : bserver),
  brun fx true fuel evs b = Some b' -> b' = brun_spec fx evs b.
Proof. exact (fun M fx fuel evs b b' => proj2 (brun_returns fx fuel evs b) b'). Qed.
Print Assumptions C07_fuelled_run_is_meaning.

(* ... so, for ANY amount of fuel: whenever the run of other clients' events followed by w's ping returns, the PONG is there *)
Theorem C07_witness_ping_answered_any_fuel : forall (M : MatchOps) (fx : fixes) (fuel : nat) (evs : list bevent) (b b' : bserver) (w : sid) (t : N),
  serving b w -> (forall ev, In ev evs -> ev_sid ev <> w) ->
  brun fx true fuel (evs ++ [BCmd w (BPing t)]) b = Some b' -> delivered b' w (OPong t).
Proof. exact @witness_ping_answered_any_fuel. Qed.
Print Assumptions C07_witness_ping_answered_any_fuel.

(* non-vacuity: a reachable state with a served witness next to a client that does not read and has replies queued *)
Example C07_serving_satisfiable : @serving tiny_ops w_state 0%N /\ ~ @serving tiny_ops w_state 1%N.
Proof. exact w_serving. Qed.

(* finding F4: the loop as found (RemoveData(name, i), the queue index) does not return -- a reachable state and a
   structurally valid Message for which the handler is out of fuel for every fuel.  Replayed on the real server. *)
Theorem C07_jettison_refuted :
  exists (ops : MatchOps) (evs : list bevent) (b : bserver) (s : sid) (c : bcmd),
    (forall fuel, 2 <= fuel -> @brun ops all_fixed true fuel evs empty_bserver = Some b) /\
    (forall fuel, @bstep ops all_fixed false fuel b (BCmd s c) = None).
Proof. exact jettison_refuted. Qed.
Print Assumptions C07_jettison_refuted.

(* non-vacuity: the premises of the fuel theorems hold in a state with queued replies (weight 1), where the repaired
   handler returns with fuel 2 and empties the non-reading client's queue *)
Example C07_fuel_premises_satisfiable : forall fuel, 2 <= fuel ->
  exists b', @bstep tiny_ops all_fixed true fuel w_state (BCmd 1%N w_cmd) = Some b' /\ @queue_of tiny_ops b' 1%N = [].
Proof. exact w_step_returns. Qed.
