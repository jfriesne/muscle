(* C14 -- Query filters evaluate as documented, survive archiving, tolerate bad archives.
   The property theorems, each closed by [exact] of a lemma proved under Flt/ or of an instance of one; the
   examples at the end show that the premises can be met.
   (the model: Flt/FltModel.v evaluator, Flt/FltArchive.v archive codec, Flt/FltParse.v expression parser) *)
From Coq Require Import List NArith ZArith Bool Strings.Byte.
From Flocq Require Import IEEE754.Binary IEEE754.Bits.
From Muscle Require Import Gen.Consts Msg.MsgDefs Msg.MsgModel Flt.FltModel Flt.FltArchive Flt.FltParse
  Flt.FltProofs Flt.FltArchiveProofs Flt.FltDocProofs Flt.FltNumProofs Flt.FltParseProofs Flt.FltParseStruct Flt.FltLexProofs Flt.FltIeee Flt.FltObject Flt.FltObjectProofs.
Import ListNotations.
Local Open Scope N_scope.

(* ================= combinators: ThresholdMaxAux's loop with both early exits = the documented count rule *)
Theorem C14_min_match_is_count : forall smatch node n kids m,
  eval smatch node (FMin n kids) m =
  if flist_len kids =? 0 then true else N.min n (flist_len kids - 1) <? nmatch smatch node kids m.
Proof. exact eval_min. Qed.
Print Assumptions C14_min_match_is_count.

Theorem C14_max_match_is_count : forall smatch node n kids m,
  eval smatch node (FMax n kids) m =
  negb (if flist_len kids =? 0 then true else N.min n (flist_len kids - 1) <? nmatch smatch node kids m).
Proof. exact eval_max. Qed.
Print Assumptions C14_max_match_is_count.

Theorem C14_xor_is_parity : forall smatch node kids m,
  eval smatch node (FXor kids) m = N.odd (nmatch smatch node kids m).
Proof. exact eval_xor. Qed.
Print Assumptions C14_xor_is_parity.

Theorem C14_and_truth_table : forall smatch node kids m,
  flist_len kids <= c_MUSCLE_NO_LIMIT -> eval smatch node (FAnd kids) m = all_match smatch node kids m.
Proof. exact eval_and. Qed.
Print Assumptions C14_and_truth_table.

Theorem C14_or_truth_table : forall smatch node kids m,
  eval smatch node (FOr kids) m = if flist_len kids =? 0 then true else some_match smatch node kids m.
Proof. exact eval_or. Qed.
Print Assumptions C14_or_truth_table.

Theorem C14_nand_truth_table : forall smatch node kids m,
  flist_len kids <= c_MUSCLE_NO_LIMIT -> eval smatch node (FNand kids) m = negb (all_match smatch node kids m).
Proof. exact eval_nand. Qed.
Print Assumptions C14_nand_truth_table.

Theorem C14_nor_truth_table : forall smatch node kids m,
  eval smatch node (FNor kids) m = negb (if flist_len kids =? 0 then true else some_match smatch node kids m).
Proof. exact eval_nor. Qed.
Print Assumptions C14_nor_truth_table.

(* ================= numeric filters *)
Theorem C14_numeric_operator_table : forall o,
  ord_test c_NQF_OP_EQUAL_TO o = match o with OEq => true | _ => false end /\
  ord_test c_NQF_OP_LESS_THAN o = match o with OLt => true | _ => false end /\
  ord_test c_NQF_OP_GREATER_THAN o = match o with OGt => true | _ => false end /\
  ord_test c_NQF_OP_LESS_THAN_OR_EQUAL_TO o = match o with OLt | OEq => true | _ => false end /\
  ord_test c_NQF_OP_GREATER_THAN_OR_EQUAL_TO o = match o with OGt | OEq => true | _ => false end /\
  ord_test c_NQF_OP_NOT_EQUAL_TO o = match o with OEq => false | _ => true end.
Proof. exact (fun o => conj eq_refl (conj eq_refl (conj eq_refl (conj eq_refl (conj eq_refl eq_refl))))). Qed.
Print Assumptions C14_numeric_operator_table.

Theorem C14_unknown_numeric_operator_never_matches : forall op o, c_NQF_NUM_NUMERIC_OPERATORS <= op -> ord_test op o = false.
Proof. exact ord_test_unknown. Qed.
Print Assumptions C14_unknown_numeric_operator_never_matches.

(* a NaN on either side: ==, <, >, <=, >= are false and != is true *)
Theorem C14_nan_is_unordered : forall eb mb x y,
  f_is_nan eb mb x = true \/ f_is_nan eb mb y = true ->
  forall op, ord_test op (f_ord eb mb x y) = (op =? c_NQF_OP_NOT_EQUAL_TO).
Proof. exact nan_compare_table. Qed.
Print Assumptions C14_nan_is_unordered.

Theorem C14_negative_zero_equals_zero :
  (f_ord 8 23 2147483648 0 = OEq /\ f_ord 8 23 0 2147483648 = OEq) /\
  (f_ord 11 52 9223372036854775808 0 = OEq /\ f_ord 11 52 0 9223372036854775808 = OEq).
Proof. exact (conj (conj eq_refl eq_refl) (conj eq_refl eq_refl)). Qed.
Print Assumptions C14_negative_zero_equals_zero.

(* the model's float comparison is the IEEE-754 comparison: it agrees with Flocq's Bcompare on the binary32 / binary64
   numbers the bit patterns denote, for ALL pairs of bit patterns (b32_of_bits z is FF2B 24 128 (binary_float_of_bits_aux 23 8 z) V
   for Flocq's validity proof V; stated for every V, which keeps the theorem free of the real-number axioms V's proof uses) *)
Theorem C14_float_compare_is_ieee754_binary32 : forall x y Vx Vy,
  x < 2 ^ 32 -> y < 2 ^ 32 ->
  Bcompare 24 128 (FF2B 24 128 (binary_float_of_bits_aux 23 8 (Z.of_N x)) Vx)
                  (FF2B 24 128 (binary_float_of_bits_aux 23 8 (Z.of_N y)) Vy)
  = match f_ord 8 23 x y with OLt => Some Lt | OEq => Some Eq | OGt => Some Gt | OUn => None end.
Proof. exact f32_ord_is_ieee. Qed.
Print Assumptions C14_float_compare_is_ieee754_binary32.

Theorem C14_float_compare_is_ieee754_binary64 : forall x y Vx Vy,
  x < 2 ^ 64 -> y < 2 ^ 64 ->
  Bcompare 53 1024 (FF2B 53 1024 (binary_float_of_bits_aux 52 11 (Z.of_N x)) Vx)
                   (FF2B 53 1024 (binary_float_of_bits_aux 52 11 (Z.of_N y)) Vy)
  = match f_ord 11 52 x y with OLt => Some Lt | OEq => Some Eq | OGt => Some Gt | OUn => None end.
Proof. exact f64_ord_is_ieee. Qed.
Print Assumptions C14_float_compare_is_ieee754_binary64.

Theorem C14_infinity_is_top : forall eb mb x,
  f_is_nan eb mb x = false -> f_ord eb mb x (pos_inf eb mb) <> OGt /\ f_ord eb mb x (pos_inf eb mb) <> OUn.
Proof. exact pos_inf_is_top. Qed.
Print Assumptions C14_infinity_is_top.

Theorem C14_integers_compare_as_twos_complement : forall w a b, 0 < w ->
  let x := sval w (uval w a) in let y := sval w (uval w b) in
  (int_ord w a b = OLt <-> (x < y)%Z) /\ (int_ord w a b = OGt <-> (x > y)%Z) /\
  (int_ord w a b = OEq <-> uval w a = uval w b) /\ int_ord w a b <> OUn.
Proof. exact int_ord_spec. Qed.
Print Assumptions C14_integers_compare_as_twos_complement.

Theorem C14_mask_operations_bitwise : forall w mop v m i, i < w ->
  N.testbit (mask_u w mop v m) i = bitop mop (N.testbit v i) (N.testbit m i).
Proof. exact mask_bits. Qed.
Print Assumptions C14_mask_operations_bitwise.

Theorem C14_missing_value_rule : forall t m name idx op mop val msk def,
  num_matches t m name idx op mop val msk def =
  match find_fix m name (nt_tc t) idx with
  | Some v => num_test t op (num_apply_mask t mop v msk) val
  | None => match def with
            | Some d => num_test t op (num_apply_mask t mop d msk) val
            | None => false
            end
  end.
Proof. exact num_matches_rule. Qed.
Print Assumptions C14_missing_value_rule.

(* ================= value-exists filters *)
Theorem C14_exists_with_type : forall m name tc idx,
  (tc =? c_B_ANY_TYPE) = false ->
  ((tc =? c_B_STRING_TYPE) || (0 <? elem_size (ftype_of_tc tc))) = true ->
  exists_data m name tc idx =
  match flookup name (msg_fields m) with
  | Some (tc', r) => (tc =? tc') && match repr_nth idx r with Some _ => true | None => false end
  | None => false
  end.
Proof. exact exists_spec_fixed. Qed.
Print Assumptions C14_exists_with_type.

(* ================= raw-data filters: each operator is the documented relation on byte strings *)
Theorem C14_raw_equal : forall my his, raw_op c_RQF_OP_EQUAL_TO my his = true <-> his = my.
Proof. exact raw_equal_to. Qed.
Print Assumptions C14_raw_equal.
Theorem C14_raw_less_than : forall my his, raw_op c_RQF_OP_LESS_THAN my his = true <-> lex_cmp (ub his) (ub my) = Lt.
Proof. exact raw_less_than. Qed.
Print Assumptions C14_raw_less_than.
Theorem C14_raw_starts_with : forall my his, raw_op c_RQF_OP_STARTS_WITH my his = true <-> exists t, his = my ++ t.
Proof. exact raw_prefix_form. Qed.
Print Assumptions C14_raw_starts_with.
Theorem C14_raw_ends_with : forall my his, raw_op c_RQF_OP_ENDS_WITH my his = true <-> exists t, his = t ++ my.
Proof. exact raw_suffix_form. Qed.
Print Assumptions C14_raw_ends_with.
Theorem C14_raw_contains : forall my his, raw_op c_RQF_OP_CONTAINS my his = true <-> exists a b, his = a ++ my ++ b.
Proof. exact raw_contains. Qed.
Print Assumptions C14_raw_contains.
Theorem C14_raw_subset_of : forall my his, raw_op c_RQF_OP_SUBSET_OF my his = true <-> exists a b, my = a ++ his ++ b.
Proof. exact raw_subset_of. Qed.
Print Assumptions C14_raw_subset_of.

(* ================= string filters *)
Theorem C14_string_starts_with : forall smatch v s, str_op smatch c_SQF_OP_STARTS_WITH v s = true <-> exists t, s = v ++ t.
Proof. exact str_starts_with. Qed.
Print Assumptions C14_string_starts_with.
Theorem C14_string_contains : forall smatch v s,
  str_op smatch c_SQF_OP_CONTAINS v s = true <-> s <> [] /\ exists a b, s = a ++ v ++ b.
Proof. exact str_contains. Qed.
Print Assumptions C14_string_contains.
Theorem C14_string_contains_ignorecase : forall smatch v s,
  str_op smatch c_SQF_OP_CONTAINS_IGNORECASE v s = true <-> s <> [] /\ v <> [] /\ exists a b, lb s = a ++ lb v ++ b.
Proof. exact (fun _ v s => str_contains_ic_form v s). Qed.
Print Assumptions C14_string_contains_ignorecase.
Theorem C14_string_equal_ignorecase : forall smatch v s, str_op smatch c_SQF_OP_EQUAL_TO_IGNORECASE v s = true <-> lb s = lb v.
Proof. exact (fun _ v s => str_eq_form v s lb len_lb). Qed.
Print Assumptions C14_string_equal_ignorecase.
Theorem C14_unknown_string_operator_never_matches : forall smatch v s op,
  c_SQF_NUM_STRING_OPERATORS <= op -> str_op smatch op v s = false.
Proof. exact str_unknown_op. Qed.
Print Assumptions C14_unknown_string_operator_never_matches.

(* ================= archiving *)
Theorem C14_archive_roundtrip : forall f, wf_filter f -> from_archive (to_archive f) = Ok f.
Proof. exact archive_roundtrip. Qed.
Print Assumptions C14_archive_roundtrip.

Theorem C14_archive_decides_identically : forall f,
  wf_filter f ->
  exists f', from_archive (to_archive f) = Ok f' /\
             forall smatch node m, eval smatch node f' m = eval smatch node f m.
Proof. exact (fun f H => ex_intro _ f (conj (archive_roundtrip f H) (fun _ _ _ => eq_refl))). Qed.
Print Assumptions C14_archive_decides_identically.

(* ================= a REUSED filter object: SetFromArchive overwrites the whole state (incl. the cached StringMatcher) *)
Theorem C14_set_from_archive_overwrites : forall o g,
  wf_filter g -> what_of (so_filter o) = what_of g ->
  obj_set_from_archive o (to_archive g) = Ok (fresh g).
Proof. exact set_from_archive_overwrites. Qed.
Print Assumptions C14_set_from_archive_overwrites.

(* for ANY prior state o of the object (any members of its class, any cached matcher, however often evaluated):
   after SetFromArchive(archive of g) every later Matches() on it, in any number, is g's decision *)
Theorem C14_reused_object_decides_as_archived : forall o g,
  wf_filter g -> what_of (so_filter o) = what_of g ->
  exists o', obj_set_from_archive o (to_archive g) = Ok o' /\
             forall smatch node ms, fst (obj_eval_all smatch node o' ms) = map (eval smatch node g) ms.
Proof. exact reused_object_decides_as_archived. Qed.
Print Assumptions C14_reused_object_decides_as_archived.

(* a used object whose cache is consistent decides like the pure evaluator, and stays consistent *)
Theorem C14_used_object_decides_like_fresh : forall smatch node ms o,
  cache_ok o -> fst (obj_eval_all smatch node o ms) = map (eval smatch node (so_filter o)) ms.
Proof. exact obj_eval_all_ok. Qed.
Print Assumptions C14_used_object_decides_like_fresh.

Theorem C14_set_from_archive_leaves_consistent_object : forall o a o', obj_set_from_archive o a = Ok o' -> cache_ok o'.
Proof. exact set_from_archive_consistent. Qed.
Print Assumptions C14_set_from_archive_leaves_consistent_object.

Theorem C14_set_from_archive_total : forall o a, exists r, obj_set_from_archive o a = r /\ (r = Err \/ exists o', r = Ok o').
Proof. exact set_from_archive_total. Qed.
Print Assumptions C14_set_from_archive_total.

(* ================= untrusted archives *)
Theorem C14_from_archive_total : forall a, exists r, from_archive a = r /\ (r = Err \/ exists f, r = Ok f).
Proof. exact from_archive_total. Qed.
Print Assumptions C14_from_archive_total.

(* ================= expression strings *)
Theorem C14_parse_total : forall atof d2f (e : bytes),
  let chars := ub e in
  let s := lex_all (S (length chars)) chars in
  okerr (p_loop atof d2f (length (fst s) + 8) s pst0).
Proof. exact parse_expr_total. Qed.
Print Assumptions C14_parse_total.

Theorem C14_lexer_fuel_adequate : forall e f1 f2,
  (length e < f1)%nat -> (length e < f2)%nat -> lex_all f1 e = lex_all f2 e.
Proof. exact lex_all_fuel_adequate. Qed.
Print Assumptions C14_lexer_fuel_adequate.

Theorem C14_word_of_letters_is_one_token : forall w rest,
  forallb is_alpha w = true -> scan_word (w ++ 32 :: rest) = (w, 32 :: rest).
Proof. exact scan_word_letters. Qed.
Print Assumptions C14_word_of_letters_is_one_token.

Theorem C14_field_name_index_default : forall name digits def,
  name <> [] -> mem_char 58 name = false -> mem_char 124 name = false ->
  mem_char 58 digits = false -> mem_char 124 digits = false -> mem_char 124 def = false ->
  (0 <= atol digits)%Z ->
  parse_field_name (user_tok (name ++ 58 :: digits ++ 124 :: def) false) true
  = Ok (name, pat 32 (atol digits), Some def).
Proof. exact (fun name digits def Hne _ _ Hc _ Hb Hpos => field_spec_last name digits def Hne Hc Hb Hpos). Qed.
Print Assumptions C14_field_name_index_default.

(* the parser builds the tree the grammar denotes (token level; any nesting, any number of operands):
   a body is a predicate `[!] t1..tn` or `operand K operand K ..`; an operand is `[!] ( body )` *)
Theorem C14_parser_builds_denoted_tree : forall atof d2f b,
  wf_body b ->
  p_loop atof d2f (length (toks_body b) + 8) (toks_body b, None) pst0
  = bind (den_body atof d2f b) (fun f => Ok (f, ([], None))).
Proof. exact parse_body. Qed.
Print Assumptions C14_parser_builds_denoted_tree.

Theorem C14_parser_builds_denoted_tree_operand : forall atof d2f o,
  wf_op o ->
  p_loop atof d2f (length (toks_op o) + 8) (toks_op o, None) pst0
  = bind (den_op atof d2f o) (fun f => Ok (f, ([], None))).
Proof. exact (fun atof d2f o => parse_body atof d2f (BOp o)). Qed.
Print Assumptions C14_parser_builds_denoted_tree_operand.

(* the lexer reads back the printed token sequence (one blank after every token) *)
Theorem C14_lexer_reads_printed_tokens : forall ts fuel,
  Forall tok_ok ts -> (length (print ts) < fuel)%nat -> lex_all fuel (print ts) = (ts, None).
Proof. exact lex_print. Qed.
Print Assumptions C14_lexer_reads_printed_tokens.

(* parse_print, on strings: the printed form of an expression of the documented grammar is parsed into the filter the
   grammar denotes (None exactly when the denotation is an error) *)
Theorem C14_parse_print : forall atof d2f b,
  wf_body b -> Forall tok_ok (toks_body b) -> Forall (fun c => c < 256) (print (toks_body b)) ->
  parse_expr atof d2f (bytes_of (print (toks_body b))) =
  match den_body atof d2f b with Ok f => Some f | _ => None end.
Proof. exact parse_print_body. Qed.
Print Assumptions C14_parse_print.

Theorem C14_parse_print_operand : forall atof d2f o,
  wf_op o -> Forall tok_ok (toks_op o) -> Forall (fun c => c < 256) (print (toks_op o)) ->
  parse_expr atof d2f (bytes_of (print (toks_op o))) =
  match den_op atof d2f o with Ok f => Some f | _ => None end.
Proof. exact (fun atof d2f o => parse_print_body atof d2f (BOp o)). Qed.
Print Assumptions C14_parse_print_operand.

(* ================= non-vacuity: the premises are satisfiable by non-trivial instances *)
Example C14_wf_example :
  wf_filter (FAnd (LCons (FNum (KNum NFloat) [x61] 2 4 0 [x00; x00; xc0; x7f] [x00; x00; x00; x00] (Some [x00; x00; x00; x80]))
            (LCons (FMsg [x6d] 0 (OSome (FStr false [x73] 0 8 [x67; x72] None)) None)
            (LCons (FRaw [x72] 0 6 c_B_ANY_TYPE (Some [x01; x02]) None) LNil)))).
Proof. cbv [wf_filter wf_flist wf_ofilter FAnd opt_nonempty]. repeat split; try (vm_compute; reflexivity); vm_compute; discriminate. Qed.

Example C14_and_len_example : flist_len (LCons (FWhat 0 0) (LCons (FWhat 1 1) LNil)) <= c_MUSCLE_NO_LIMIT.
Proof. vm_compute. discriminate. Qed.

Example C14_nan_example : f_is_nan 8 23 2143289344 = true /\ f_is_nan 11 52 9221120237041090560 = true.   (* 0x7fc00000, 0x7ff8000000000000 *)
Proof. split; reflexivity. Qed.

Example C14_not_nan_example : f_is_nan 8 23 1065353216 = false.        (* 1.0f *)
Proof. reflexivity. Qed.

Example C14_letters_example : forallb is_alpha [101; 121; 101; 99; 111; 108; 111; 114] = true.     (* "eyecolor" *)
Proof. reflexivity. Qed.

Example C14_field_spec_example :          (* "age:2|18" *)
  [97; 103; 101] <> [] /\ mem_char 58 [97; 103; 101] = false /\ mem_char 124 [97; 103; 101] = false /\
  mem_char 58 [50] = false /\ mem_char 124 [50] = false /\ mem_char 124 [49; 56] = false /\ (0 <= atol ([50]%N))%Z.
Proof. repeat split; try reflexivity; try discriminate. Qed.

Example C14_wf_body_example :      (* ( a == 1 ) && !( b < 2 ) *)
  wf_body (BConj c_LTOKEN_AND
             (OGroup false (BLeaf false [user_tok [97] false; fixed_tok c_LTOKEN_EQ; user_tok [49] false]))
             (OCons (OGroup true (BLeaf false [user_tok [98] false; fixed_tok c_LTOKEN_LT; user_tok [50] false])) ONil)).
Proof. cbn. repeat split; try reflexivity; try discriminate; repeat constructor. Qed.

Example C14_lexable_examples :       (* age  eyecolor  21  150.0f *)
  lexable [97; 103; 101] /\ lexable [101; 121; 101; 99; 111; 108; 111; 114] /\ lexable [50; 49] /\ lexable [49; 53; 48; 46; 48; 102].
Proof. repeat split; apply lexable_of_chars; try discriminate; try reflexivity; intros rest; reflexivity. Qed.

Example C14_parse_print_example :    (* ( age >= 21 ) && ! ( eyecolor == "green" ) *)
  let b := BConj c_LTOKEN_AND
             (OGroup false (BLeaf false [user_tok [97; 103; 101] false; fixed_tok c_LTOKEN_GEQ; user_tok [50; 49] false]))
             (OCons (OGroup true (BLeaf false [user_tok [101; 121; 101; 99; 111; 108; 111; 114] false; fixed_tok c_LTOKEN_EQ;
                                               user_tok [103; 114; 101; 101; 110] true])) ONil) in
  wf_body b /\ Forall tok_ok (toks_body b) /\ Forall (fun c => c < 256) (print (toks_body b)).
Proof.
  cbv zeta. split; [|split].
  - cbn. repeat split; try reflexivity; try discriminate; repeat constructor.
  - destruct C14_lexable_examples as [L1 [L2 [L3 _]]].
    cbn [toks_body toks_op toks_rest neg_toks app].
    repeat (apply Forall_cons || apply Forall_nil); try (unfold tok_ok; cbn; repeat split; reflexivity); assumption.
  - vm_compute. repeat (apply Forall_cons || apply Forall_nil); reflexivity.
Qed.

Example C14_redundant_parens_example :     (* ( ! ( a == 1 ) ) *)
  wf_body (BOp (OGroup false (BOp (OGroup true (BLeaf false [user_tok [97] false; fixed_tok c_LTOKEN_EQ; user_tok [49] false]))))).
Proof. cbn. repeat split; try reflexivity; repeat constructor. Qed.

Example C14_exists_type_example : (c_B_INT32_TYPE =? c_B_ANY_TYPE) = false /\ ((c_B_INT32_TYPE =? c_B_STRING_TYPE) || (0 <? elem_size (ftype_of_tc c_B_INT32_TYPE))) = true.
Proof. split; reflexivity. Qed.

Example C14_reuse_example :     (* a used wildcard filter "a*" (matcher cached) and the filter "b*" of the same class and operator *)
  let o := mkSO (FStr false [x6e] 0 c_SQF_OP_SIMPLE_WILDCARD_MATCH [x61; x2a] None) (Some (c_SQF_OP_SIMPLE_WILDCARD_MATCH, [x61; x2a])) in
  let g := FStr false [x6e] 0 c_SQF_OP_SIMPLE_WILDCARD_MATCH [x62; x2a] (Some [x62]) in
  wf_filter g /\ what_of (so_filter o) = what_of g /\ cache_ok o.
Proof. cbv zeta. repeat split; vm_compute; reflexivity. Qed.

Example C14_unknown_op_example : c_NQF_NUM_NUMERIC_OPERATORS <= 200 /\ c_SQF_NUM_STRING_OPERATORS <= 200.
Proof. split; vm_compute; discriminate. Qed.
