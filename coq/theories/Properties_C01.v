(* C01 -- Message serialisation round-trips exactly and its size is exact.
   Property theorems only: each is closed by [exact] of a lemma proved under Msg/.

   Reading guide.  [msg] is the model of a muscle::Message (Msg/MsgDefs.v); [flatten], [flattened_size],
   [unflatten] mirror Message::Flatten/FlattenedSize/Unflatten and everything below them (Msg/MsgModel.v);
   [wf m] = structurally well-formed (unique NUL-free field names, items fit their type codes, strings
   NUL-free) and representable (what-code, type codes and the flattened size below 2^32);
   [rt m] = [norm_msg (strip_msg m)]: the fields that are never written (pointers, tags) removed and every
   one-item array turned into an inline item -- the only two ways in which the parsed Message may differ from
   the original; [content_msg] forgets the inline/array state.  All theorems quantify over every Message of
   any size, field order and nesting depth. *)
From Coq Require Import List NArith.
From Muscle Require Import Msg.MsgDefs Msg.MsgModel Msg.MsgApi Msg.MsgBytesProofs Msg.MsgSizeProofs
  Msg.MsgRoundTrip Msg.MsgReprProofs Msg.MsgApiProofs Msg.MsgEqProofs Msg.MsgFuelProofs Msg.MsgExamples
  Msg.TmplModel Msg.TmplProofs Msg.TmplHashProofs Msg.TmplMergeProofs.
Local Open Scope N_scope.

(* 1. the advertised flattened size is the number of bytes written *)
Theorem C01_flatten_length : forall m : msg, wf_msg m -> len (flatten m) = flattened_size m.
Proof. exact flatten_length. Qed.
Print Assumptions C01_flatten_length.

(* 2. parsing the serialised bytes yields the original Message (modulo strip and norm) *)
Theorem C01_unflatten_flatten : forall m : msg, wf m -> unflatten (flatten m) = Ok (rt m).
Proof. exact unflatten_flatten. Qed.
Print Assumptions C01_unflatten_flatten.

(* 3. ... and [rt m] has exactly the content of the original's flattenable part: same what-code, same fields
   in the same order, same type codes, same item counts, identical item bytes, at every nesting level *)
Theorem C01_rt_content : forall m : msg, content_msg (rt m) = content_msg (strip_msg m).
Proof. exact rt_content. Qed.
Print Assumptions C01_rt_content.

(* 4. serialising the parsed Message reproduces the original bytes; the advertised size is unchanged *)
Theorem C01_reflatten : forall m : msg, wf_msg m -> flatten (rt m) = flatten m.
Proof. exact reflatten. Qed.
Print Assumptions C01_reflatten.

Theorem C01_resize : forall m : msg, wf_msg m -> flattened_size (rt m) = flattened_size m.
Proof. exact resize. Qed.
Print Assumptions C01_resize.

(* 5. the content checksum is unchanged by the trip, whatever the hash function is *)
Theorem C01_checksum_roundtrip : forall (hash : bytes -> N) (m : msg), chk_msg hash false (rt m) = chk_msg hash false m.
Proof. exact checksum_roundtrip. Qed.
Print Assumptions C01_checksum_roundtrip.

(* 5b. representation independence of the checksum: a one-item array and an inline item count the same
   (for both values of countNonFlattenableFields) *)
Theorem C01_checksum_repr_indep : forall (hash : bytes -> N) (cnf : bool) (m : msg),
  chk_msg hash cnf (norm_msg m) = chk_msg hash cnf m.
Proof. exact (fun hash cnf => proj2 (proj2 (proj2 (proj2 (chk_norm_all hash cnf))))). Qed.
Print Assumptions C01_checksum_repr_indep.

(* 6. equality of two Messages is unchanged by the trip, whatever the (symmetric) equality of leaf values is
   -- so IEEE NaN <> NaN does not matter -- for every fuel and in particular for the adequate one *)
Theorem C01_eq_roundtrip :
  forall (ieq : ftype -> bytes -> bytes -> bool), (forall ft a b, ieq ft a b = ieq ft b a) ->
  forall (fuel : nat) (m n : msg), wf_msg m -> wf_msg n ->
    msg_eqb ieq fuel (rt m) (rt n) = msg_eqb ieq fuel (strip_msg m) (strip_msg n).
Proof. exact eq_roundtrip. Qed.
Print Assumptions C01_eq_roundtrip.

Theorem C01_eq_roundtrip_adequate :
  forall (ieq : ftype -> bytes -> bytes -> bool) (m n : msg),
    (forall ft a b, ieq ft a b = ieq ft b a) -> wf_msg m -> wf_msg n ->
    msg_eq ieq (rt m) (rt n) = msg_eq ieq (strip_msg m) (strip_msg n).
Proof. exact eq_roundtrip_adequate. Qed.
Print Assumptions C01_eq_roundtrip_adequate.

(* 6b. representation independence and symmetry of operator== (on Messages whose field names are unique at
   every level, which wf Messages without non-flattenable fields are) *)
Theorem C01_eqb_repr_indep :
  forall (ieq : ftype -> bytes -> bytes -> bool), (forall ft a b, ieq ft a b = ieq ft b a) ->
  forall (fuel : nat) (m n : msg), nd_msg m -> nd_msg n ->
    msg_eqb ieq fuel (norm_msg m) (norm_msg n) = msg_eqb ieq fuel m n.
Proof. exact msg_eqb_norm. Qed.
Print Assumptions C01_eqb_repr_indep.

Theorem C01_eqb_sym :
  forall (ieq : ftype -> bytes -> bytes -> bool), (forall ft a b, ieq ft a b = ieq ft b a) ->
  forall (fuel : nat) (m n : msg), nd_msg m -> nd_msg n -> msg_eqb ieq fuel m n = msg_eqb ieq fuel n m.
Proof. exact msg_eqb_sym. Qed.
Print Assumptions C01_eqb_sym.

Theorem C01_eq_fuel_adequate :
  forall (ieq : ftype -> bytes -> bytes -> bool) (fuel k : nat) (m n : msg),
    (depth_msg m <= fuel \/ depth_msg n <= fuel)%nat -> msg_eqb ieq (fuel + k) m n = msg_eqb ieq fuel m n.
Proof. exact msg_eqb_fuel_adequate. Qed.
Print Assumptions C01_eq_fuel_adequate.

(* 7. the hypothesis is satisfied by what the public API builds: every sequence of well-typed
   Add/Prepend/Replace/RemoveData/RemoveName/Rename/Clear operations from the empty Message *)
Theorem C01_api_reachable_wf : forall ops : list mop, Forall op_ok ops -> wf_msg (run ops empty_msg).
Proof. exact api_reachable_wf. Qed.
Print Assumptions C01_api_reachable_wf.

(* 8. side conditions on the translated constants (re-checked whenever /repo's tables change) *)
Theorem C01_size_tables_ok : forall ft : ftype, ft_fixed ft = true ->
  wire_size ft = cpp_size ft /\ arr_unit ft = cpp_size ft /\ 0 < cpp_size ft.
Proof. exact size_tables_ok. Qed.
Print Assumptions C01_size_tables_ok.

(* 9. fuel adequacy of the parser model: for EVERY byte string the model's loops terminate by consuming
   input, i.e. running out of fuel is not an outcome of [unflatten] *)
Theorem C01_unflatten_never_fuel : forall w : bytes, unflatten w <> Fuel.
Proof. exact unflatten_never_fuel. Qed.
Print Assumptions C01_unflatten_never_fuel.

(* 10. the TEMPLATED serialisation (Message::TemplatedFlatten / TemplatedUnflatten, used by the templating
   mode of MessageIOGateway): for every template t and every payload p of t's shape (same flattenable fields,
   order, names, type codes and item counts at every level -- what equality of TemplateHashCode64 stands for),
   the templated bytes exist, their number is TemplatedFlattenedSize, and parsing them against t gives p back
   (modulo strip and norm, exactly as for the ordinary codec) *)
Theorem C01_tmpl_roundtrip : forall t p : msg,
  wf_msg t -> ne_msg t -> wf_msg p -> same_shape t p = true -> tmpl_flattened_size t p < two32 ->
  exists b, tmpl_flatten t p = Some b /\ len b = tmpl_flattened_size t p /\ tmpl_unflatten t b = Ok (rt p).
Proof. exact tmpl_roundtrip. Qed.
Print Assumptions C01_tmpl_roundtrip.

(* 10b. ... and the template the library itself makes (CreateMessageTemplate) qualifies, for every Message whose
   fields all hold at least one item -- which every Message built through the API does *)
Theorem C01_created_template_ok : forall p : msg, wf_msg p -> nz_msg p ->
  same_shape (tmpl_of_msg p) p = true /\ wf_msg (tmpl_of_msg p) /\ ne_msg (tmpl_of_msg p).
Proof. exact created_template_ok. Qed.
Print Assumptions C01_created_template_ok.

Theorem C01_tmpl_roundtrip_created : forall p : msg,
  wf_msg p -> nz_msg p -> tmpl_flattened_size (tmpl_of_msg p) p < two32 ->
  exists b, tmpl_flatten (tmpl_of_msg p) p = Some b /\ len b = tmpl_flattened_size (tmpl_of_msg p) p /\
            tmpl_unflatten (tmpl_of_msg p) b = Ok (rt p).
Proof. exact tmpl_roundtrip_created. Qed.
Print Assumptions C01_tmpl_roundtrip_created.

Theorem C01_api_reachable_nz : forall ops : list mop, Forall op_nz ops -> nz_msg (run ops empty_msg).
Proof. exact api_reachable_nz. Qed.
Print Assumptions C01_api_reachable_nz.

(* 10c. TemplateHashCode64 (the key of MessageIOGateway's template cache) is a function of the shape, whatever the
   64-bit string hash is: same shape, same hash; in particular a Message and the template made for it *)
Theorem C01_same_shape_same_hash : forall (h64 : bytes -> N) (t p : msg),
  same_shape t p = true -> tmpl_hash h64 t = tmpl_hash h64 p.
Proof. exact same_shape_same_hash. Qed.
Print Assumptions C01_same_shape_same_hash.

Theorem C01_created_template_hash : forall (h64 : bytes -> N) (p : msg),
  wf_msg p -> nz_msg p -> tmpl_hash h64 (tmpl_of_msg p) = tmpl_hash h64 p.
Proof. exact created_template_hash. Qed.
Print Assumptions C01_created_template_hash.

(* ... and the converse is false for every string hash: two well-formed Messages of different shapes with the same
   TemplateHashCode64 (the shape pair of finding F54) *)
Theorem C01_tmpl_hash_not_injective : forall (h64 : bytes -> N),
  wf_msg coll_1 /\ wf_msg coll_2 /\ nz_msg coll_1 /\ nz_msg coll_2 /\
  same_shape coll_1 coll_2 = false /\ same_shape coll_2 coll_1 = false /\
  tmpl_hash h64 coll_1 = tmpl_hash h64 coll_2.
Proof. exact hash_collision. Qed.
Print Assumptions C01_tmpl_hash_not_injective.

(* 10d. the templated codec for ANY template (fields non-empty) and ANY payload: the bytes are those of the payload merged
   into the template (the template's fields in the template's order; the payload's items where it has the field with
   the same type code, cut or padded with the template's items to the template's count), the merge has the template's
   shape, the size is exact and TemplatedUnflatten gives the merge back *)
Theorem C01_tmpl_merge_ok : forall t p : msg,
  wf_msg t -> nz_msg t -> wf_msg p ->
  wf_msg (tmpl_merge t p) /\ same_shape t (tmpl_merge t p) = true /\
  tmpl_flatten t (tmpl_merge t p) = tmpl_flatten t p /\
  tmpl_flattened_size t (tmpl_merge t p) = tmpl_flattened_size t p.
Proof. exact tmpl_merge_ok. Qed.
Print Assumptions C01_tmpl_merge_ok.

Theorem C01_tmpl_roundtrip_any : forall t p : msg,
  wf_msg t -> nz_msg t -> wf_msg p -> tmpl_flattened_size t p < two32 ->
  exists b, tmpl_flatten t p = Some b /\ len b = tmpl_flattened_size t p /\
            tmpl_unflatten t b = Ok (rt (tmpl_merge t p)).
Proof. exact tmpl_roundtrip_any. Qed.
Print Assumptions C01_tmpl_roundtrip_any.

Theorem C01_tmpl_merge_same_shape : forall t p : msg,
  wf_msg t -> nz_msg t -> wf_msg p -> same_shape t p = true -> tmpl_flattened_size t p < two32 ->
  rt (tmpl_merge t p) = rt p.
Proof. exact tmpl_merge_same_shape. Qed.
Print Assumptions C01_tmpl_merge_same_shape.

(* non-vacuity on the fewer-items case of finding F65: payload {a:["hi"]} against template {a:["qqqqq","x"]} *)
Theorem C01_tmpl_fewer_example :
  wf_msg fewer_t /\ nz_msg fewer_t /\ wf_msg fewer_p /\ same_shape fewer_t fewer_p = false /\
  tmpl_flattened_size fewer_t fewer_p = 21 /\
  tmpl_flatten fewer_t fewer_p =
    Some (cons Coq.Init.Byte.x00 (cons Coq.Init.Byte.x00 (cons Coq.Init.Byte.x00 (cons Coq.Init.Byte.x00
         (cons Coq.Init.Byte.x02 (cons Coq.Init.Byte.x00 (cons Coq.Init.Byte.x00 (cons Coq.Init.Byte.x00
         (cons Coq.Init.Byte.x03 (cons Coq.Init.Byte.x00 (cons Coq.Init.Byte.x00 (cons Coq.Init.Byte.x00
         (cons Coq.Init.Byte.x68 (cons Coq.Init.Byte.x69 (cons Coq.Init.Byte.x00
         (cons Coq.Init.Byte.x02 (cons Coq.Init.Byte.x00 (cons Coq.Init.Byte.x00 (cons Coq.Init.Byte.x00
         (cons Coq.Init.Byte.x78 (cons Coq.Init.Byte.x00 nil))))))))))))))))))))) /\
  tmpl_merge fewer_t fewer_p =
    Msg 0 (FCons (cons Coq.Init.Byte.x61 nil) Gen.Consts.c_B_STRING_TYPE
            (RArray (ICons (IStr (cons Coq.Init.Byte.x68 (cons Coq.Init.Byte.x69 nil))) (ICons (IStr (cons Coq.Init.Byte.x78 nil)) INil))) FNil).
Proof. exact ex_fewer. Qed.
Print Assumptions C01_tmpl_fewer_example.

(* 11. the domain boundary F9: a String with an embedded NUL is outside wf and does come back truncated *)
Theorem C01_nul_string_truncates :
  unflatten (flatten nul_msg) = Ok (Msg 0 (FCons nm_a Gen.Consts.c_B_STRING_TYPE (RInline (IStr (cons Coq.Init.Byte.x61 nil))) FNil))
  /\ ~ wf_msg nul_msg.
Proof. exact nul_string_truncates. Qed.
Print Assumptions C01_nul_string_truncates.

(* non-vacuity: the premises hold of non-trivial states (proved in Msg/MsgExamples.v) *)
Example C01_ex_wf : wf ex_msg.
Proof. exact ex_wf. Qed.
Example C01_ex_nontrivial : rt ex_msg <> ex_msg /\ unflatten (flatten ex_msg) = Ok (rt ex_msg).
Proof. exact (conj ex_rt_differs ex_roundtrip). Qed.
Example C01_ex_tmpl : wf_msg (tmpl_of_msg ex_msg) /\ ne_msg (tmpl_of_msg ex_msg) /\ same_shape (tmpl_of_msg ex_msg) ex_msg = true.
Proof. exact (conj (proj1 ex_tmpl) (conj (proj1 (proj2 ex_tmpl)) (proj1 (proj2 (proj2 ex_tmpl))))). Qed.
Example C01_ex_ops_ok : Forall op_ok ex_ops /\ wf (run ex_ops empty_msg).
Proof. exact (conj ex_ops_ok (proj1 ex_ops_result)). Qed.
