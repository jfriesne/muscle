(* C09 -- property theorems: each is closed by [exact] of a result proved elsewhere; the Examples are witnesses
   checked in place. *)
From Coq Require Import List Arith ZArith NArith PArith Permutation.
From Muscle Require Import Cont.HtModel Cont.HtStep Cont.HtIdeal Cont.HtLemmas Cont.HtRepr Cont.HtWalk
                           Cont.HtTable Cont.HtInv Cont.HtSafe Cont.HtSafeAll Cont.HtRefine Cont.HtPend Cont.HtTravW Cont.HtTravOps Cont.HtTravSem Cont.HtTravThm Cont.HtTravAny Cont.HtTravRefuted Cont.HtSorted Cont.HtSortedThm Cont.HtIdealLaws Cont.HtLaws Cont.HtClearModel Cont.HtClear Cont.HtStore Cont.HtStoreProofs Cont.HtStoreLink Cont.HtStoreOrder Gen.Consts.
Import ListNotations.

(* InsertIterationEntry is list insertion: if the links of h form the list l1 ++ l2 and e is an
   unlinked entry, then after InsertIterationEntry(e, last l1) they form l1 ++ e :: l2 *)
Theorem C09_insert_iteration_entry : forall h l1 l2 e,
  linked h (l1 ++ l2) -> ~ In e (l1 ++ l2) -> live h e ->
  let h' := insert_iter_entry h e (last_of l1) in
  linked h' (l1 ++ e :: l2) /\ same_data h h' /\ meta_eq h h'.
Proof. exact insert_linked. Qed.
Print Assumptions C09_insert_iteration_entry.

(* RemoveIterationEntry (link part) is list removal *)
Theorem C09_remove_iteration_entry : forall h l1 l2 e,
  linked h (l1 ++ e :: l2) ->
  let h' := unlink h e in
  linked h' (l1 ++ l2) /\ same_data h h' /\ meta_eq h h' /\ get_prev h' e = None /\ get_next h' e = None.
Proof. exact unlink_linked. Qed.
Print Assumptions C09_remove_iteration_entry.

(* every operation of the model (57 operations: put/get/remove/move/sort/size/clear/copy/swap/
   equality/move-to-table/construction/destruction and the iterator operations) preserves the world
   invariant: tables well linked with unique keys, registered-iterator lists and owner fields
   consistent, every cookie a live entry of the iterator's own table *)
Theorem C09_step_preserves_invariant : forall var dcap w o, WF w -> WF (fst (step1 var dcap w o)).
Proof. exact step1_WF. Qed.
Print Assumptions C09_step_preserves_invariant.

(* iterator safety for every finite sequence of operations, any number of tables and iterators, all
   three classes: an iterator's cookie is always an entry currently linked in its own table's
   iteration list (never a removed entry), and the iterator is on that table's registered list *)
Theorem C09_iter_safe : forall var dcap nt ni ops,
  let w := run1 var dcap (init_world dcap nt ni) ops in
  forall i it c, geti (its w) i = Some it -> icookie it = Some c ->
    inoreg it = false /\
    exists t, iown it = Some t /\ t < length (tabs w) /\ In i (ilist (gett w t)) /\
              In c (ids (gett w t)) /\ kv_of (gett w t) c <> None.
Proof. exact iter_safe. Qed.
Print Assumptions C09_iter_safe.

(* what an iterator shows (HasData/GetKey/GetValue) is its private scratch copy or the pair of an
   entry that is in its table right now *)
Theorem C09_shown_safe : forall var dcap nt ni ops,
  let w := run1 var dcap (init_world dcap nt ni) ops in
  forall i kv, shown w i = Some kv ->
    exists it, geti (its w) i = Some it /\
      (iscr it = Some kv \/
       (iscr it = None /\ exists t c, iown it = Some t /\ icookie it = Some c /\ In c (ids (gett w t)) /\
                                      In kv (abs (gett w t)) /\ kv_of (gett w t) c = Some kv)).
Proof. exact shown_safe. Qed.
Print Assumptions C09_shown_safe.

(* every reachable table: backward links mirror forward links, keys unique, count = length *)
Theorem C09_tables_consistent : forall var dcap nt ni ops,
  let w := run1 var dcap (init_world dcap nt ni) ops in
  forall t, t < length (tabs w) ->
    abs_back (gett w t) = rev (abs (gett w t)) /\ NoDup (map fst (abs (gett w t))) /\
    cnt (gett w t) = length (abs (gett w t)).
Proof. exact tables_consistent. Qed.
Print Assumptions C09_tables_consistent.

(* the table behaves as the ideal ordered map: for every world satisfying the invariant and EVERY
   operation, the abstraction (pairs in iteration order, reserved capacity, auto-sort flag of every
   table) of the code-shaped step is the ideal step on the abstraction, and every table operation
   returns the ideal result (iterator observations exist at L1 only) *)
Theorem C09_ht_refines_step : forall var dcap w o, WF w ->
  abs_world (fst (step1 var dcap w o)) = fst (step0 var dcap (abs_world w) o) /\
  (is_iter_op o = false -> snd (step1 var dcap w o) = snd (step0 var dcap (abs_world w) o)).
Proof. exact step_refines. Qed.
Print Assumptions C09_ht_refines_step.

(* ... and for every finite history from the initial world *)
Theorem C09_ht_refines : forall var dcap nt ni ops,
  abs_world (run1 var dcap (init_world dcap nt ni) ops) = run0 var dcap (abs_world (init_world dcap nt ni)) ops /\
  (Forall (fun o => is_iter_op o = false) ops ->
   outs1 var dcap (init_world dcap nt ni) ops = outs0 var dcap (abs_world (init_world dcap nt ni)) ops).
Proof. exact init_refines. Qed.
Print Assumptions C09_ht_refines.

(* the map laws on the code-shaped model, for all three classes (also when the auto-sorting classes
   reposition entries): Get after Put / after Remove *)
Theorem C09_put_then_get : forall var dcap w t k v, WF w -> t < length (tabs w) ->
  let w' := fst (step1 var dcap w (OPut t k v)) in
  snd (step1 var dcap w' (OGet t k)) = OVal (Some v) /\
  (forall k', k' <> k -> snd (step1 var dcap w' (OGet t k')) = snd (step1 var dcap w (OGet t k'))).
Proof. exact put_then_get. Qed.
Print Assumptions C09_put_then_get.

Theorem C09_remove_then_get : forall var dcap w t k, WF w -> t < length (tabs w) ->
  let w' := fst (step1 var dcap w (ORemove t k)) in
  snd (step1 var dcap w' (OGet t k)) = OVal None /\
  (forall k', k' <> k -> snd (step1 var dcap w' (OGet t k')) = snd (step1 var dcap w (OGet t k'))).
Proof. exact remove_then_get. Qed.
Print Assumptions C09_remove_then_get.

(* the two order-dependent ideal operations of the auto-sorting classes only permute the pairs *)
Theorem C09_ordered_insert_permutes : forall var l kv, Permutation (kv :: l) (l0_insert_ordered var l kv).
Proof. exact insert_ordered_perm. Qed.
Print Assumptions C09_ordered_insert_permutes.

Theorem C09_ordered_reposition_permutes : forall var l k, Permutation l (l0_reposition_ordered var l k).
Proof. exact reposition_ordered_perm. Qed.
Print Assumptions C09_ordered_reposition_permutes.

(* Traversals.  [tr_ok i w ops]: ops consists of advances of iterator i and of operations that do not
   operate on iterator i and are quiet ([quiet]), i.e. one of
   (a) calm ([calm]): every query, Put of a new key (any class) or of any key of the plain class,
       PutIfNotAlreadyPresent, GetOrPut, Remove / RemoveFirst / RemoveLast, Remove(table), Intersect,
       EnsureSize / ShrinkToFit / EnsureCanPut, Clear, CopyFrom with clearing, copy and move
       construction, PreallocatedItemSlotsCount construction, SwapContents / move assignment,
       destruction, every operation on other iterators -- no premise at all on these;
   (b) a relinking operation ([relinking]: Put of an existing key on an auto-sorting table,
       MoveToTable / CopyToTable, PutAtFront/AtBack/Before/Behind/AtPosition, MoveToFront/Back/Before/
       Behind/Position, GetAndMoveToFront/Back, SortByKey / SortByValue / Sort, Reposition,
       SetAutoSortEnabled, CopyFrom without clearing) that leaves the relative order of the entries
       of the iterator's table unchanged ([kept]: a decidable comparison of the two id lists), and is
       not a double move ([double_move]: Put-with-position of an EXISTING key on an auto-sorting
       class, which repositions the entry twice and is classified as a reordering operation: see
       C09_traversal_semantic_refuted; it is admitted under (a) when it changes nothing).
   [sem_okd] is the same premise as a boolean function of the run.  [trav i w ops]: the entries newly
   shown by the advances.  So: in a traversal that the mutations did not reorder, no entry is shown
   twice and no entry that stays in the table is skipped, whatever else happens to any table. *)

(* no entry is shown twice *)
Theorem C09_iter_no_dup : forall var dcap i ops w, WF w -> reg w i -> tr_ok var dcap i w ops ->
  NoDup (trav var dcap i w ops).
Proof. exact (fun var dcap i ops w W R Ok => proj1 (proj2 (trav_spec var dcap i ops w W R Ok))). Qed.
Print Assumptions C09_iter_no_dup.

(* nothing that stays in the iterator's table is skipped: it is shown, or still to come *)
Theorem C09_iter_no_skip : forall var dcap i ops w, WF w -> reg w i -> tr_ok var dcap i w ops ->
  forall n, In n (pending w i) -> stays var dcap i n w ops ->
  In n (trav var dcap i w ops) \/ In n (pending (run1 var dcap w ops) i).
Proof. exact (fun var dcap i ops w W R Ok => proj2 (proj2 (trav_spec var dcap i ops w W R Ok))). Qed.
Print Assumptions C09_iter_no_skip.

(* a complete traversal: an iterator created by GetIterator() (either direction) on a non-empty table
   and advanced, interleaved with any quiet operations on any tables and any operations on other
   iterators, until HasData() is false, has shown every entry that was in its table from creation to
   the end exactly once, and no entry twice *)
Theorem C09_traversal_complete : forall var dcap w0 i t bw ops, WF w0 ->
  i < length (its w0) -> t < length (tabs w0) -> cnt (gett w0 t) <> 0 ->
  let w := fst (step1 var dcap w0 (OIterNew i t bw)) in
  tr_ok var dcap i w ops ->
  shown (run1 var dcap w ops) i = None ->
  let V := opt_list (cur w i) ++ trav var dcap i w ops in
  NoDup V /\ (forall n, In n (ids (gett w0 t)) -> stays var dcap i n w ops -> In n V).
Proof. exact traversal_complete. Qed.
Print Assumptions C09_traversal_complete.

(* one quiet operation: what is pending for a registered iterator stays pending as long as it stays
   in the table, and nothing but brand-new entries becomes pending *)
Theorem C09_quiet_step : forall var dcap w o i, WF w -> quiet var dcap i w o -> touches i o = false -> reg w i ->
  calm_rel w (fst (step1 var dcap w o)) i /\ reg (fst (step1 var dcap w o)) i.
Proof. exact quiet_step. Qed.
Print Assumptions C09_quiet_step.

(* the premise as a decidable check of the run *)
Theorem C09_traversal_premise_decidable : forall var dcap i ops w,
  sem_okd var dcap i w ops = true -> tr_ok var dcap i w ops.
Proof. exact sem_okd_tr_ok. Qed.
Print Assumptions C09_traversal_premise_decidable.

(* Under ANY operations, reordering ones included (moves, sorts, double moves): whatever a live
   iterator points at is a live entry of its own table -- it never yields a removed entry (what it
   shows is then that entry's key and value, or the saved copy of the entry removed under it:
   C09_shown_safe) ... *)
Theorem C09_iter_yields_live : forall var dcap ops w i x, WF w ->
  cur (run1 var dcap w ops) i = Some x -> In x (it_list (run1 var dcap w ops) i).
Proof. exact iter_yields_live. Qed.
Print Assumptions C09_iter_yields_live.

(* ... and from any such state, advancing it with no further mutation reaches the end within one step
   more than the table has entries (precisely: than it has entries left to visit) *)
Theorem C09_iter_terminates : forall var dcap i n w, WF w -> length (pending w i) < n ->
  shown (run1 var dcap w (repeat (OIterAdv i) n)) i = None.
Proof. exact adv_terminates. Qed.
Print Assumptions C09_iter_terminates.

Theorem C09_iter_terminates_cnt : forall var dcap i w, WF w ->
  shown (run1 var dcap w (repeat (OIterAdv i) (S (length (it_list w i))))) i = None.
Proof. exact adv_terminates_cnt. Qed.
Print Assumptions C09_iter_terminates_cnt.

(* the double move has to be excluded: a run in which every mutation keeps the relative order of the
   surviving entries ([sem_ok]: [sem_okd] without the double-move test), yet an entry that stays in
   the table is never shown *)
Theorem C09_traversal_semantic_refuted :
  exists (w : world) (ops : list op) (n : positive),
    sem_ok VVals 7%N 0 w ops = true /\
    memb n (it_list w 0) = true /\ staysb VVals 7%N 0 n w ops = true /\
    shown (run1 VVals 7%N w ops) 0 = None /\
    memb n (opt_list (cur w 0) ++ trav VVals 7%N 0 w ops) = false.
Proof. exact traversal_semantic_refuted. Qed.
Print Assumptions C09_traversal_semantic_refuted.

(* non-vacuity of the traversal premises: removals of the current and of the next entry, an insertion
   and a growth of the table between the advances of a forward iterator *)
Example C09_traversal_nonvacuous :
  let w0 := run1 VPlain 7%N (init_world 7%N 1 1) [OPut 0 1%Z 1%Z; OPut 0 2%Z 2%Z; OPut 0 3%Z 3%Z; OPut 0 4%Z 4%Z] in
  let w := fst (step1 VPlain 7%N w0 (OIterNew 0 0 false)) in
  let ops := [ORemove 0 1%Z; ORemove 0 2%Z; OIterAdv 0; OPut 0 9%Z 9%Z; OEnsure 0 300%N false; OIterAdv 0; OIterAdv 0; OIterAdv 0; OIterAdv 0] in
  tr_ok VPlain 7%N 0 w ops /\ shown (run1 VPlain 7%N w ops) 0 = None /\ length (trav VPlain 7%N 0 w ops) = 3.
Proof.
  cbv zeta. split; [|split; vm_compute; reflexivity].
  repeat (first [apply tr_adv | apply tr_mut; [reflexivity|left; cbn [calm]; try exact I; left; reflexivity|] | apply tr_nil]).
Qed.

(* ... and with relinking operations on an OrderedKeysHashtable: a Put that replaces a value, a sort of
   the sorted table, moves onto the own position, a Put-with-position of a new key, a CopyFrom
   without clearing that adds and re-sorts, between the advances *)
Example C09_traversal_relinking_nonvacuous :
  let w0 := run1 VKeys 7%N (init_world 7%N 2 1) [OPut 0 3%Z 3%Z; OPut 0 1%Z 1%Z; OPut 0 4%Z 4%Z; OPut 0 2%Z 2%Z; OPut 1 2%Z 7%Z; OPut 1 8%Z 8%Z] in
  let w := fst (step1 VKeys 7%N w0 (OIterNew 0 0 false)) in
  let ops := [OPut 0 2%Z 20%Z; OSortKey 0; OIterAdv 0; OMoveFront 0 1%Z; OMoveBehind 0 3%Z 2%Z; ORemove 0 2%Z; OPutAtBack 0 9%Z 9%Z;
              OCopyFrom 0 1 false; OIterAdv 0; OMovePos 0 4%Z 3; OReposition 0 4%Z; OIterAdv 0; OIterAdv 0; OIterAdv 0; OIterAdv 0] in
  sem_okd VKeys 7%N 0 w ops = true /\ shown (run1 VKeys 7%N w ops) 0 = None /\ length (trav VKeys 7%N 0 w ops) = 5.
Proof. vm_compute. repeat split; reflexivity. Qed.

(* Clear(), literally (HtClearModel.v: detach every registered iterator, then RemoveEntryByIndex(head)
   until the list is empty, then give up the slot array if asked to) has exactly the effect the model
   uses for Clear / destruction / EnsureSize(0): same iterator table, same head, tail, count,
   capacity, fresh counter, auto-sort flag and iterator list, and no node left *)
Theorem C09_clear_loop : forall dcap h I release l, tinv h l ->
  let a := clear_literal dcap h I release in
  let b := clear_tab dcap h I release in
  snd a = snd b /\ hd (fst a) = hd (fst b) /\ tl (fst a) = tl (fst b) /\ cnt (fst a) = cnt (fst b) /\
  cap (fst a) = cap (fst b) /\ fresh (fst a) = fresh (fst b) /\ asort (fst a) = asort (fst b) /\
  ilist (fst a) = ilist (fst b) /\ (forall y, getn (fst a) y = getn (fst b) y).
Proof. exact clear_literal_spec. Qed.
Print Assumptions C09_clear_loop.

(* ------------------------------------------------------------------ the storage layer (HtStore.v)
   The slot array of HashtableBase: per slot hash/key/value, BUCKET_PREV / BUCKET_NEXT, MAP_TO /
   MAPPED_FROM; the free list; GetEntry, PutAuxAux, SwapEntryMaps, RemoveEntry (storage part),
   PushToFreeList / PopFromFreeList, CreateEntriesArray, the rebuild of EnsureSize and the growth rule
   of PutAux; ComputeTableIndexTypeForTableSize.  [sinv]: MAP_TO / MAPPED_FROM are inverse
   permutations, every bucket chain is a doubly linked list of used slots with the right bucket whose
   head is the MAP_TO image of the bucket, the free list is a doubly linked list of exactly the unused
   slots, the count is right.  [hashf] is an arbitrary hash function. *)

Theorem C09_store_inv_create : forall n, 0 < n -> sinv (st_create n).
Proof. exact sinv_create. Qed.
Print Assumptions C09_store_inv_create.

Theorem C09_store_inv_put : forall st hash key val,
  sinv st -> nitems st < st_size st -> st_key_absent (slots st) key ->
  sinv (fst (st_put_new st hash key val)).
Proof. exact sinv_put_new. Qed.
Print Assumptions C09_store_inv_put.

Theorem C09_store_inv_remove : forall st i,
  sinv st -> i < st_size st -> st_gh (slots st) i <> None -> sinv (st_remove st i).
Proof. exact sinv_remove. Qed.
Print Assumptions C09_store_inv_remove.

Theorem C09_store_inv_rebuild : forall (hashf : Z -> N) n es,
  0 < n -> length es <= n -> NoDup (map st_ekey es) -> sinv (st_rebuild n es).
Proof. exact sinv_rebuild. Qed.
Print Assumptions C09_store_inv_rebuild.

(* GetEntry's walk along the bucket chain finds a key exactly when some used slot holds it *)
Theorem C09_store_get_correct : forall hashf st k i,
  sinv st -> st_hash_ok hashf (slots st) ->
  (st_get st (hashf k) k = Some i <->
   i < st_size st /\ st_gh (slots st) i <> None /\ st_gk (slots st) i = k).
Proof. exact st_get_correct. Qed.
Print Assumptions C09_store_get_correct.

Theorem C09_store_keys_distinct : forall st x y,
  sinv st -> x < st_size st -> y < st_size st ->
  st_gh (slots st) x <> None -> st_gh (slots st) y <> None ->
  st_gk (slots st) x = st_gk (slots st) y -> x = y.
Proof. exact st_keys_distinct. Qed.
Print Assumptions C09_store_keys_distinct.

(* finite-map laws against [st_lookup], a scan of all slots that ignores the chains *)
Theorem C09_store_put_lookup_same : forall st hash key val,
  sinv st -> nitems st < st_size st -> st_key_absent (slots st) key ->
  st_lookup (fst (st_put_new st hash key val)) key = Some val.
Proof. exact st_put_new_lookup_same. Qed.
Print Assumptions C09_store_put_lookup_same.

Theorem C09_store_put_lookup_other : forall st hash key val k',
  sinv st -> nitems st < st_size st -> st_key_absent (slots st) key -> k' <> key ->
  st_lookup (fst (st_put_new st hash key val)) k' = st_lookup st k'.
Proof. exact st_put_new_lookup_other. Qed.
Print Assumptions C09_store_put_lookup_other.

Theorem C09_store_remove_lookup_same : forall st i,
  sinv st -> i < st_size st -> st_gh (slots st) i <> None ->
  st_lookup (st_remove st i) (st_gk (slots st) i) = None.
Proof. exact st_remove_lookup_same. Qed.
Print Assumptions C09_store_remove_lookup_same.

Theorem C09_store_remove_lookup_other : forall st i k',
  sinv st -> i < st_size st -> st_gh (slots st) i <> None -> k' <> st_gk (slots st) i ->
  st_lookup (st_remove st i) k' = st_lookup st k'.
Proof. exact st_remove_lookup_other. Qed.
Print Assumptions C09_store_remove_lookup_other.

(* reallocation (EnsureSize: every entry re-Put into a fresh array, in iteration order) loses nothing *)
Theorem C09_store_rebuild_lookup : forall (hashf : Z -> N) st order n k,
  sinv st -> st_order_ok st order -> 0 < n -> length order <= n ->
  st_lookup (st_rebuild n (st_entries st order)) k = st_lookup st k.
Proof. exact st_rebuild_lookup. Qed.
Print Assumptions C09_store_rebuild_lookup.

(* index width: every stored index (BUCKET_PREV/NEXT, MAP_TO, MAPPED_FROM, free head) is below the
   sentinel (IndexType)-1 of the width chosen by ComputeTableIndexTypeForTableSize -- narrowing to
   uint8 / uint16 / uint32 loses nothing and never collides with the sentinel *)
Theorem C09_store_index_width : forall st,
  sinv st -> st_size st < idx_limit 2 -> st_narrow_ok st = true.
Proof. exact st_narrow_ok_sinv. Qed.
Print Assumptions C09_store_index_width.

(* all finite histories of Put / Get / Remove / EnsureSize, with the growth rule of PutAux: the storage
   layer returns what the ideal finite map returns ... *)
Theorem C09_store_run_correct : forall hashf n ops, 0 < n ->
  st_run hashf (mkRun (st_create n) []) ops = fm_run (fun _ => None) ops.
Proof. exact st_run_correct. Qed.
Print Assumptions C09_store_run_correct.

(* ... which is what the L1 iteration-list model (any class, any number of iterators) returns *)
Theorem C09_store_refines_l1 : forall var dcap (hashf : Z -> N) n ni ops, 0 < n ->
  st_run hashf (mkRun (st_create n) []) ops =
  map out_val (outs1 var dcap (init_world dcap 1 ni) (map op_of_sop ops)).
Proof. exact storage_refines_l1. Qed.
Print Assumptions C09_store_refines_l1.

(* ... and the order in which the storage layer re-inserts its entries when it reallocates ([r_order]) is
   the iteration order of the plain Hashtable: after every history the pairs held by the slots of
   [r_order] are the table's contents in iteration order (so EnsureSize rebuilds in iteration order
   and the rebuilt array holds the same ordered map) *)
Theorem C09_store_order_is_iteration_order : forall (hashf : Z -> N) dcap n ni ops, 0 < n ->
  let r := st_run_state hashf (mkRun (st_create n) []) ops in
  map (st_kv (slots (r_st r))) (r_order r) =
  abs (gett (run1 VPlain dcap (init_world dcap 1 ni) (map op_of_sop ops)) 0).
Proof. exact st_order_is_l1_order. Qed.
Print Assumptions C09_store_order_is_iteration_order.

(* non-vacuity: seven slots, every key in the same bucket; a Put whose starter slot is taken by another
   bucket (SwapEntryMaps), the removal of a bucket head with a successor, growth from 7 to 14 slots *)
Example C09_store_nonvacuous :
  let hf := fun k : Z => Z.to_N (k mod 3) in
  let ops := [SPut 0 10; SPut 3 13; SPut 1 11; SPut 6 16; SGet 3; SRemove 0; SPut 9 19; SPut 4 14; SPut 7 17; SPut 2 12; SPut 5 15; SPut 8 18;
              SGet 6; SGet 0; SRemove 3; SGet 9]%Z in
  st_run hf (mkRun (st_create 7) []) ops =
    [None; None; None; None; Some 13; Some 10; None; None; None; None; None; None; Some 16; None; Some 13; Some 19]%Z.
Proof. vm_compute. reflexivity. Qed.

(* the auto-sorting classes (OrderedKeysHashtable: var = VKeys, OrderedValuesHashtable: var = VVals):
   in every world reachable by operations that keep auto-sort enabled and do not explicitly reorder
   ([keeps_sorted]: everything except MoveTo*, GetAndMoveTo*, PutAt*/PutBefore/PutBehind,
   SortByKey/SortByValue and SetAutoSortEnabled), every table is in sorted order (ties in insertion
   order, as fixed by the refinement to the ideal insertion [l0_insert_ordered]) *)
Theorem C09_sorted_inv : forall var dcap, var <> VPlain -> forall nt ni ops,
  Forall (fun o => keeps_sorted o = true) ops ->
  let w := run1 var dcap (init_world dcap nt ni) ops in
  forall t, t < length (tabs w) -> asort (gett w t) = true /\ sorted var (abs (gett w t)).
Proof. exact sorted_inv. Qed.
Print Assumptions C09_sorted_inv.

Example C09_sorted_nonvacuous :
  abs (gett (run1 VVals 7%N (init_world 7%N 1 0)
              [OPut 0 1%Z 5%Z; OPut 0 2%Z 3%Z; OPut 0 3%Z 5%Z; OPut 0 4%Z 3%Z; OPut 0 2%Z 9%Z; ORemove 0 1%Z]) 0)
  = [(4%Z, 3%Z); (3%Z, 5%Z); (2%Z, 9%Z)].
Proof. vm_compute. reflexivity. Qed.

(* side condition on the translated constant: the default capacity is positive (an empty table can
   accept a Put) and below the first index-width threshold (a default table uses 8-bit indices) *)
Theorem C09_default_capacity_ok :
  (0 < c_MUSCLE_HASHTABLE_DEFAULT_CAPACITY)%N /\ (c_MUSCLE_HASHTABLE_DEFAULT_CAPACITY < 255)%N.
Proof. exact default_capacity_ok. Qed.
Print Assumptions C09_default_capacity_ok.

(* non-vacuity: a reachable world with a live registered iterator whose cookie is an entry *)
Example C09_iter_safe_nonvacuous :
  let w := run1 VPlain 7%N (init_world 7%N 1 1) [OPut 0 1%Z 1%Z; OPut 0 2%Z 2%Z; OIterNew 0 0 false; ORemove 0 1%Z] in
  exists it c, geti (its w) 0 = Some it /\ icookie it = Some c /\ iscr it = Some (1%Z, 1%Z) /\ kv_of (gett w 0) c = Some (2%Z, 2%Z).
Proof. vm_compute. eexists. eexists. repeat split. Qed.
